(* C12/C13 -- theorems about the GENERATED rule tables:
   table_ideal      every class with a specification (EvalSpec.spec_table) has a formula that,
                    interpreted over the reals, is the mathematical function of the class
                    (for the three tables: visitor, single dispatch, lambda);
   pow/const        Pow (E case = exp, E**x = exp x) and the closed formulas of pi and E;
   dispatch_agree   the single-dispatch table equals the visitor table on every class it has
                    (Max/Min up to the harmless duplicate first argument);
   lambda_agree     the lambda table equals the visitor table on the listed classes. *)
From Coq Require Import Reals Lra Lia ZArith NArith List Bool.
From Flocq Require Import Core.Raux.
From SE Require Import Gen.TypeCodes Eval.EvalModel Eval.EvalIdeal Eval.EvalSpec
  Eval.Gen_EvalRules Eval.Gen_LambdaRules.
Import ListNotations.
Local Open Scope R_scope.

Lemma r_true_b2r : forall b, r_true (b2r b) = b.
Proof.
  intros []; unfold r_true, b2r; destruct (Req_EM_T _ 0); auto; lra.
Qed.

(* One specification table, several tables of rules: a list of expected rows (class, what its rule
   must be) such that every expected row meets the specification of its class, and a table all of
   whose rows are the expected ones, give: every class of the table meets its specification. *)
Lemma rows_ideal : forall {S T} (spec : list (N * S)) (can : list (N * T))
                          (P : S -> T -> Prop) (Q : N -> T -> Prop) (M : N -> S -> Prop),
  Forall2 (fun row f => fst row = fst f /\ P (snd row) (snd f)) spec can ->
  Forall (fun f => Q (fst f) (snd f)) can ->
  (forall c sp t, P sp t -> Q c t -> M c sp) ->
  forall c sp, In (c, sp) spec -> M c sp.
Proof.
  intros S T spec can P Q M HS HQ HM c sp Hin.
  induction HS as [| [c1 sp1] [c2 t] l l' [Hc HP] _ IH]; [ destruct Hin | ].
  inversion HQ; subst. destruct Hin as [Heq | Hin]; [ | auto ].
  injection Heq as <- <-. cbn in *. subst c2. eauto.
Qed.

(* the formulas of the double evaluators: f(x), 1 / f(x), f(1 / x), f(x, y) *)
Definition un (u : ufun) : list nat * fterm := ([0%nat], FUn u (FArg 0)).
Definition recip_un (u : ufun) : list nat * fterm := ([0%nat], FBin BDiv (FLit L1) (FUn u (FArg 0))).
Definition un_recip (u : ufun) : list nat * fterm := ([0%nat], FUn u (FBin BDiv (FLit L1) (FArg 0))).
Definition bin (b : bfun) : list nat * fterm := ([0%nat; 1%nat], FBin b (FArg 0) (FArg 1)).
Definition sign_term : list nat * fterm :=
  ([0%nat], FIf (FBin BEq (FArg 0) (FLit L0)) (FLit L0) (FIf (FBin BLt (FArg 0) (FLit L0)) (FLit LM1) (FLit L1))).

(* the formula each class of EvalSpec.spec_table is expected to have, in the order of that table
   (a changed formula in the C++ source no longer is the expected one) *)
Definition canon : list (N * (list nat * fterm)) := [
  (TC_Sin, un USin); (TC_Cos, un UCos); (TC_Tan, un UTan);
  (TC_Cot, recip_un UTan); (TC_Sec, recip_un UCos); (TC_Csc, recip_un USin);
  (TC_ASin, un UAsin); (TC_ACos, un UAcos); (TC_ATan, un UAtan);
  (TC_ACot, un_recip UAtan); (TC_ASec, un_recip UAcos); (TC_ACsc, un_recip UAsin);
  (TC_Sinh, un USinh); (TC_Cosh, un UCosh); (TC_Tanh, un UTanh);
  (TC_Coth, recip_un UTanh); (TC_Sech, recip_un UCosh); (TC_Csch, recip_un USinh);
  (TC_ASinh, un UAsinh); (TC_ACosh, un UAcosh); (TC_ATanh, un UAtanh);
  (TC_ACoth, un_recip UAtanh); (TC_ASech, un_recip UAcosh); (TC_ACsch, un_recip UAsinh);
  (TC_Log, un ULog); (TC_Abs, un UAbs); (TC_Gamma, un UGamma); (TC_LogGamma, un ULgamma);
  (TC_Erf, un UErf); (TC_Erfc, un UErfc); (TC_Sign, sign_term);
  (TC_Floor, un UFloor); (TC_Ceiling, un UCeil); (TC_Truncate, un UTrunc);
  (TC_ATan2, bin BAtan2); (TC_Equality, bin BEq); (TC_Unequality, bin BNe);
  (TC_LessThan, bin BLe); (TC_StrictLessThan, bin BLt)
].

(* the class is not accepted, or its rule is the expected formula *)
Definition row_ok (tbl : list (N * rule)) (c : N) (f : list nat * fterm) : Prop :=
  match lookup_rule tbl c with
  | Some (RThrow _) => True
  | r => r = Some (RFormula (fst f) (snd f))
  end.

Section TABLES.
Variables gamma_R lgamma_R erf_R erfc_R : R -> R.
Variable lit_other : lit -> R.
Notation interpR := (interp_R gamma_R lgamma_R erf_R erfc_R lit_other).
Notation SAT := (sat gamma_R lgamma_R erf_R erfc_R lit_other).
Notation RUN := (R_un gamma_R lgamma_R erf_R erfc_R).

(* a formula of one of the shapes meets a specification if its function does *)
Lemma sat_un : forall u (dom : R -> Prop) f, (forall x, dom x -> RUN u x = f x) -> SAT (SFun dom f) [0%nat] (FUn u (FArg 0)).
Proof. intros u dom f H. split; [ reflexivity | ]. intros x Hx. cbn [interp_R nth_error option_map]. rewrite (H x Hx). reflexivity. Qed.

Lemma sat_recip_un : forall u (dom : R -> Prop) f, (forall x, dom x -> 1 / RUN u x = f x) ->
  SAT (SFun dom f) [0%nat] (FBin BDiv (FLit L1) (FUn u (FArg 0))).
Proof.
  intros u dom f H. split; [ reflexivity | ]. intros x Hx. cbn [interp_R nth_error option_map R_bin R_lit].
  rewrite (H x Hx). reflexivity.
Qed.

Lemma sat_inv_un : forall u (dom : R -> Prop) (char : R -> R -> Prop), (forall x, dom x -> char x (RUN u x)) -> SAT (SInv dom char) [0%nat] (FUn u (FArg 0)).
Proof. intros u dom char H. split; [ reflexivity | ]. intros x Hx. cbn [interp_R nth_error option_map]. eauto. Qed.

Lemma sat_inv_un_recip : forall u (dom : R -> Prop) (char : R -> R -> Prop), (forall x, dom x -> char x (RUN u (1 / x))) ->
  SAT (SInv dom char) [0%nat] (FUn u (FBin BDiv (FLit L1) (FArg 0))).
Proof.
  intros u dom char H. split; [ reflexivity | ]. intros x Hx. cbn [interp_R nth_error option_map R_bin R_lit]. eauto.
Qed.

Lemma sat_bin : forall b f, (forall x y, R_bin b x y = f x y) -> SAT (SFun2 all2 f) [0%nat; 1%nat] (FBin b (FArg 0) (FArg 1)).
Proof. intros b f H. split; [ reflexivity | ]. intros x y _. cbn [interp_R nth_error]. rewrite H. reflexivity. Qed.

Lemma sat_sign : SAT (SFun all1 sgn_R) (fst sign_term) (snd sign_term).
Proof.
  split; [ reflexivity | ]. intros x _. cbn [snd sign_term interp_R nth_error R_bin R_lit]. rewrite !r_true_b2r. unfold r_eqb, r_ltb, sgn_R.
  destruct (Req_EM_T x 0); [ reflexivity | ].
  destruct (Rlt_dec x 0); reflexivity.
Qed.

Lemma recip_inv : forall x, 1 / x = / x.
Proof. intro x. apply Rmult_1_l. Qed.

Lemma canon_sat :
  Forall2 (fun row f => fst row = fst f /\ SAT (snd row) (fst (snd f)) (snd (snd f)))
          (spec_table gamma_R lgamma_R erf_R erfc_R) canon.
Proof.
  unfold spec_table, canon.
  repeat (apply Forall2_cons; [ split; [ reflexivity | cbn [fst snd un recip_un un_recip bin] ] | ]);
    [ .. | apply Forall2_nil ].
  - (* sin *) apply sat_un. reflexivity.
  - (* cos *) apply sat_un. reflexivity.
  - (* tan *) apply sat_un. reflexivity.
  - (* cot *) apply sat_recip_un. intros x [Hs Hc]. apply cot_ok; auto.
  - (* sec *) apply sat_recip_un. intros. apply recip_inv.
  - (* csc *) apply sat_recip_un. intros. apply recip_inv.
  - (* asin *) apply sat_inv_un. exact asin_ok.
  - (* acos *) apply sat_inv_un. exact acos_ok.
  - (* atan *) apply sat_inv_un. exact atan_ok.
  - (* acot *) apply sat_inv_un_recip. exact acot_ok.
  - (* asec *) apply sat_inv_un_recip. exact asec_ok.
  - (* acsc *) apply sat_inv_un_recip. exact acsc_ok.
  - (* sinh *) apply sat_un. reflexivity.
  - (* cosh *) apply sat_un. reflexivity.
  - (* tanh *) apply sat_un. reflexivity.
  - (* coth *) apply sat_recip_un. exact coth_ok.
  - (* sech *) apply sat_recip_un. intros. apply recip_inv.
  - (* csch *) apply sat_recip_un. intros. apply recip_inv.
  - (* asinh *) apply sat_inv_un. intros. apply sinh_arcsinh.
  - (* acosh *) apply sat_inv_un. exact acosh_ok.
  - (* atanh *) apply sat_inv_un. exact tanh_atanh.
  - (* acoth *) apply sat_inv_un_recip. exact acoth_ok.
  - (* asech *) apply sat_inv_un_recip. exact asech_ok.
  - (* acsch *) apply sat_inv_un_recip. exact acsch_ok.
  - (* log *) apply sat_inv_un. exact log_ok.
  - (* abs *) apply sat_un. reflexivity.
  - (* Gamma *) apply sat_un. reflexivity.
  - (* log Gamma *) apply sat_un. reflexivity.
  - (* erf *) apply sat_un. reflexivity.
  - (* erfc *) apply sat_un. reflexivity.
  - (* sign *) exact sat_sign.
  - (* floor *) apply sat_un. reflexivity.
  - (* ceiling *) apply sat_un. reflexivity.
  - (* truncate *) apply sat_un. reflexivity.
  - (* atan2 *) apply sat_bin. reflexivity.
  - (* == *) apply sat_bin. intros x y. unfold R_bin, b2r, r_eqb. destruct (Req_EM_T x y); reflexivity.
  - (* != *) apply sat_bin. intros x y. unfold R_bin, b2r, r_eqb. destruct (Req_EM_T x y); reflexivity.
  - (* <= *) apply sat_bin. intros x y. unfold R_bin, b2r, r_leb. destruct (Rle_dec x y); reflexivity.
  - (* < *) apply sat_bin. intros x y. unfold R_bin, b2r, r_ltb. destruct (Rlt_dec x y); reflexivity.
Qed.

Lemma table_ideal_canon : forall tbl, Forall (fun f => row_ok tbl (fst f) (snd f)) canon ->
  table_ideal gamma_R lgamma_R erf_R erfc_R lit_other tbl.
Proof.
  intros tbl H. unfold table_ideal.
  apply (rows_ideal _ _ (fun sp f => SAT sp (fst f) (snd f)) (row_ok tbl)
                    (fun c sp => rule_meets gamma_R lgamma_R erf_R erfc_R lit_other sp (lookup_rule tbl c)) canon_sat H).
  intros c sp f Hs Hr. unfold row_ok in Hr. unfold rule_meets.
  destruct (lookup_rule tbl c) as [[] |]; try exact I; try discriminate Hr.
  injection Hr as -> ->. exact Hs.
Qed.

(* the rows of a generated table are looked up by evaluation *)
Theorem visitor_table_ideal : table_ideal gamma_R lgamma_R erf_R erfc_R lit_other visitor_rules.
Proof. apply table_ideal_canon. repeat (constructor; [ vm_compute; constructor | ]). constructor. Qed.

Theorem dispatch_table_ideal : table_ideal gamma_R lgamma_R erf_R erfc_R lit_other dispatch_rules.
Proof. apply table_ideal_canon. repeat (constructor; [ vm_compute; constructor | ]). constructor. Qed.

Theorem lambda_table_ideal : table_ideal gamma_R lgamma_R erf_R erfc_R lit_other lambda_rules.
Proof. apply table_ideal_canon. repeat (constructor; [ vm_compute; constructor | ]). constructor. Qed.

(* Pow and Constant have the same rule in all the tables *)
Lemma pow_rule_ideal : forall b,
  pow_meets gamma_R lgamma_R erf_R erfc_R lit_other (Some (RPow b (FUn UExp (FArg 0)) (FBin BPow (FArg 0) (FArg 1)))).
Proof. intro b. repeat split. exact Rpower_exp1. Qed.

Theorem visitor_pow_ideal : pow_meets gamma_R lgamma_R erf_R erfc_R lit_other (lookup_rule visitor_rules TC_Pow).
Proof. exact (pow_rule_ideal true). Qed.
Theorem dispatch_pow_ideal : pow_meets gamma_R lgamma_R erf_R erfc_R lit_other (lookup_rule dispatch_rules TC_Pow).
Proof. exact (pow_rule_ideal true). Qed.
Theorem lambda_pow_ideal : pow_meets gamma_R lgamma_R erf_R erfc_R lit_other (lookup_rule lambda_rules TC_Pow).
Proof. exact (pow_rule_ideal true). Qed.

(* pi = atan2(0, -1), E = exp(1) *)
Lemma const_rule_ideal : forall r t, r = Some (RConstants t) ->
  const_find [112; 105]%N t = Some (FBin BAtan2 (FLit L0) (FLit LM1)) ->
  const_find [69]%N t = Some (FUn UExp (FLit L1)) ->
  const_meets gamma_R lgamma_R erf_R erfc_R lit_other r.
Proof.
  intros r t -> Hpi HE. split; eexists; (split; [ eassumption | ]); cbn [interp_R R_un R_bin R_lit];
    [ f_equal; apply atan2_0_m1 | reflexivity ].
Qed.

Theorem visitor_const_ideal : const_meets gamma_R lgamma_R erf_R erfc_R lit_other (lookup_rule visitor_rules TC_Constant).
Proof. eapply const_rule_ideal; reflexivity. Qed.
Theorem dispatch_const_ideal : const_meets gamma_R lgamma_R erf_R erfc_R lit_other (lookup_rule dispatch_rules TC_Constant).
Proof. eapply const_rule_ideal; reflexivity. Qed.

End TABLES.

(* non-vacuity of table_ideal: the classes of the specification table really have formulas *)
Definition is_formula (r : option rule) : bool :=
  match r with Some (RFormula _ _) => true | _ => false end.

(* classes both real evaluators accept *)
Definition eval_classes : list N :=
  [TC_Sin; TC_Cos; TC_Tan; TC_Cot; TC_Sec; TC_Csc; TC_ASin; TC_ACos; TC_ATan; TC_ACot; TC_ASec; TC_ACsc;
   TC_Sinh; TC_Cosh; TC_Tanh; TC_Coth; TC_Sech; TC_Csch; TC_ASinh; TC_ACosh; TC_ATanh; TC_ACoth; TC_ASech;
   TC_ACsch; TC_Log; TC_Abs; TC_Gamma; TC_LogGamma; TC_Erf; TC_Erfc; TC_ATan2; TC_Equality; TC_Unequality;
   TC_LessThan; TC_StrictLessThan].
Definition lambda_only_classes : list N := [TC_Sign; TC_Floor; TC_Ceiling; TC_Truncate].

Theorem tables_cover_spec :
  forallb (fun c => is_formula (lookup_rule visitor_rules c) && is_formula (lookup_rule dispatch_rules c)
                    && is_formula (lookup_rule lambda_rules c)) eval_classes = true
  /\ forallb (fun c => is_formula (lookup_rule lambda_rules c)) lambda_only_classes = true
  /\ (length eval_classes + length lambda_only_classes = 39)%nat.
Proof. repeat split; vm_compute; reflexivity. Qed.

Definition all_codes : list N := map fst visitor_rules.

Definition rule_at (tbl : list (N * rule)) (c : N) : rule :=
  match lookup_rule tbl c with Some r => r | None => RThrow EXN_NOTIMPL end.

(* equal rules, or Max/Min folds that differ only in visiting the first argument twice *)
Definition rule_agree (a b : rule) : bool :=
  rule_eqb a b ||
  match a, b with
  | RFoldFirst o1 f1, RFoldFirst o2 f2 => bfun_eqb o1 o2 && (f1 <=? 1)%nat && (f2 <=? 1)%nat
  | _, _ => false
  end.

(* every class the single-dispatch table has is evaluated by the same rule as in the visitor *)
Theorem dispatch_agree :
  forallb (fun c => is_throw (rule_at dispatch_rules c) || rule_agree (rule_at visitor_rules c) (rule_at dispatch_rules c))
          all_codes = true.
Proof. vm_compute. reflexivity. Qed.

Theorem dispatch_supports :
  filter (fun c => negb (is_throw (rule_at dispatch_rules c))) all_codes
  = [TC_Integer; TC_Rational; TC_RealDouble; TC_Mul; TC_Add; TC_Pow; TC_Log; TC_Constant] ++
    [TC_Sin; TC_Cos; TC_Tan; TC_Cot; TC_Csc; TC_Sec; TC_ASin; TC_ACos; TC_ASec; TC_ACsc; TC_ATan; TC_ACot; TC_ATan2;
     TC_Sinh; TC_Csch; TC_Cosh; TC_Sech; TC_Tanh; TC_Coth; TC_ASinh; TC_ACsch; TC_ACosh; TC_ATanh; TC_ACoth; TC_ASech] ++
    [TC_Erf; TC_Erfc; TC_Gamma; TC_LogGamma; TC_Abs; TC_Max; TC_Min; TC_Equality; TC_Unequality; TC_LessThan; TC_StrictLessThan].
Proof. vm_compute. reflexivity. Qed.

(* classes the visitor accepts and single dispatch does not (NotImplemented there) *)
Theorem dispatch_lacks :
  filter (fun c => is_throw (rule_at dispatch_rules c) && negb (is_throw (rule_at visitor_rules c))) all_codes
  = [TC_NumberWrapper; TC_FunctionWrapper; TC_Piecewise; TC_BooleanAtom; TC_UnevaluatedExpr].
Proof. vm_compute. reflexivity. Qed.

(* the lambda table: same rule as eval_double on every class that both accept, except the
   classes whose closure construction is written differently (Add, Mul: dictionary fold instead of
   the fold over get_args; Constant: value taken from eval_double; Symbol) *)
Definition lambda_differs : list N := [TC_Add; TC_Mul; TC_Constant; TC_Symbol; TC_Dummy].

Theorem lambda_agree :
  forallb (fun c => is_throw (rule_at visitor_rules c) || is_throw (rule_at lambda_rules c)
                    || existsb (N.eqb c) lambda_differs
                    || rule_agree (rule_at visitor_rules c) (rule_at lambda_rules c)) all_codes = true.
Proof. vm_compute. reflexivity. Qed.

(* classes eval_double accepts and the lambda visitor does not *)
Theorem lambda_lacks :
  filter (fun c => is_throw (rule_at lambda_rules c) && negb (is_throw (rule_at visitor_rules c))) all_codes
  = [TC_NumberWrapper; TC_FunctionWrapper].
Proof. vm_compute. reflexivity. Qed.

Theorem lambda_extra :
  filter (fun c => is_throw (rule_at visitor_rules c) && negb (is_throw (rule_at lambda_rules c))) all_codes
  = [TC_Infty; TC_NaN; TC_Symbol; TC_Dummy; TC_Sign; TC_Floor; TC_Ceiling; TC_Contains; TC_Not; TC_And; TC_Or; TC_Xor; TC_Truncate].
Proof. vm_compute. reflexivity. Qed.

Theorem evalrule_ideal :
  forall (gamma_R lgamma_R erf_R erfc_R : R -> R) (lit_other : lit -> R),
    table_ideal gamma_R lgamma_R erf_R erfc_R lit_other visitor_rules /\
    table_ideal gamma_R lgamma_R erf_R erfc_R lit_other dispatch_rules /\
    pow_meets gamma_R lgamma_R erf_R erfc_R lit_other (lookup_rule visitor_rules TC_Pow) /\
    pow_meets gamma_R lgamma_R erf_R erfc_R lit_other (lookup_rule dispatch_rules TC_Pow) /\
    const_meets gamma_R lgamma_R erf_R erfc_R lit_other (lookup_rule visitor_rules TC_Constant) /\
    const_meets gamma_R lgamma_R erf_R erfc_R lit_other (lookup_rule dispatch_rules TC_Constant).
Proof.
  intros.
  split; [ apply visitor_table_ideal | ].
  split; [ apply dispatch_table_ideal | ].
  split; [ apply visitor_pow_ideal | ].
  split; [ apply dispatch_pow_ideal | ].
  split; [ apply visitor_const_ideal | apply dispatch_const_ideal ].
Qed.

Theorem lambda_rules_ideal :
  forall (gamma_R lgamma_R erf_R erfc_R : R -> R) (lit_other : lit -> R),
    table_ideal gamma_R lgamma_R erf_R erfc_R lit_other lambda_rules /\
    pow_meets gamma_R lgamma_R erf_R erfc_R lit_other (lookup_rule lambda_rules TC_Pow).
Proof. intros. split; [ apply lambda_table_ideal | apply lambda_pow_ideal ]. Qed.

Theorem dispatch_agree_tables :
  forallb (fun c => is_throw (rule_at dispatch_rules c) || rule_agree (rule_at visitor_rules c) (rule_at dispatch_rules c))
          all_codes = true
  /\ filter (fun c => is_throw (rule_at dispatch_rules c) && negb (is_throw (rule_at visitor_rules c))) all_codes
     = [TC_NumberWrapper; TC_FunctionWrapper; TC_Piecewise; TC_BooleanAtom; TC_UnevaluatedExpr].
Proof. split; [ exact dispatch_agree | exact dispatch_lacks ]. Qed.

Theorem lambda_agree_tables :
  forallb (fun c => is_throw (rule_at visitor_rules c) || is_throw (rule_at lambda_rules c)
                    || existsb (N.eqb c) lambda_differs
                    || rule_agree (rule_at visitor_rules c) (rule_at lambda_rules c)) all_codes = true
  /\ filter (fun c => is_throw (rule_at lambda_rules c) && negb (is_throw (rule_at visitor_rules c))) all_codes
     = [TC_NumberWrapper; TC_FunctionWrapper]
  /\ filter (fun c => is_throw (rule_at visitor_rules c) && negb (is_throw (rule_at lambda_rules c))) all_codes
     = [TC_Infty; TC_NaN; TC_Symbol; TC_Dummy; TC_Sign; TC_Floor; TC_Ceiling; TC_Contains; TC_Not; TC_And; TC_Or; TC_Xor; TC_Truncate].
Proof. split; [ exact lambda_agree | split; [ exact lambda_lacks | exact lambda_extra ] ]. Qed.
