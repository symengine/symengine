(* C13 -- re-initialising a LambdaDoubleVisitor behaves like a fresh one.
   reinit_fresh_gen for ANY state s (whatever history produced it, failed inits included): an
                    init that starts with an empty cse_intermediate_fns_map (the repaired code
                    clears it first; the old code only if no CSE init failed before) gives the
                    same outcome as on a fresh object, and every subsequent sequence of calls
                    returns the same results -- although the two buffers cse_intermediate_results
                    differ (stale contents, possibly another size).
   The proof shows that closure j of cse_intermediate_fns reads only buffer slots < j, all of
   which the same call has written before. *)
From Coq Require Import List NArith ZArith Bool Lia.
From SE Require Import Eval.EvalModel Eval.EvalProofs Eval.LambdaModel Eval.LambdaProofs.
Import ListNotations.
Local Open Scope res_scope.

Lemma Forall_skipn : forall {X} (P : X -> Prop) n l, Forall P l -> Forall P (skipn n l).
Proof.
  induction n; intros l H; cbn; auto. destruct H; cbn; auto.
Qed.

Section REINIT.
Context {F : Type} (A : falg F).
Variables vt lt : list (N * rule).

(* the closure (looked at to depth fuel, the depth at which it was compiled and is run) reads
   only buffer slots below j *)
Fixpoint sb (fuel j : nat) (k : @clo F) : bool :=
  match fuel with
  | O => true
  | S fu =>
    match k with
    | KIn _ | KVal _ => true
    | KSlot i => (i <? j)%nat
    | KForm _ ks | KFoldArgs _ _ ks | KFoldFirst _ _ ks | KBoolFold _ _ ks => forallb (sb fu j) ks
    | KPow _ b x => sb fu j b && sb fu j x
    | KFoldDict _ _ _ _ k0 items =>
        sb fu j k0 &&
        forallb (fun p => match fst p with Some k1 => sb fu j k1 | None => true end && sb fu j (snd p)) items
    | KPw _ l => forallb (fun p => sb fu j (fst p) && sb fu j (snd p)) l
    end
  end.

Lemma forallb_skipn : forall {X} (p : X -> bool) n l, forallb p l = true -> forallb p (skipn n l) = true.
Proof.
  induction n; intros l H; cbn; auto. destruct l; cbn in *; auto.
  apply andb_true_iff in H. destruct H. auto.
Qed.

Definition agree_below (i : nat) (b1 b2 : list F) : Prop :=
  forall x, (x < i)%nat -> nth_error b1 x = nth_error b2 x.

(* the lengths enter through the error a missing slot gives, which reports the buffer length;
   with j = 0 no slot is read *)
Lemma run_SB : forall inp b1 b2 j,
  agree_below j b1 b2 ->
  (j = 0%nat \/ length b1 = length b2) ->
  forall fu k, sb fu j k = true -> run A fu inp b1 k = run A fu inp b2 k.
Proof.
  intros inp b1 b2 j Hb Hlen. induction fu as [| fu IH]; intros k Hk; [ reflexivity | ].
  cbn [run]. cbn [sb] in Hk. destruct k.
  - reflexivity.
  - apply Nat.ltb_lt in Hk. rewrite (Hb i Hk). destruct Hlen as [Hj | Hl]; [ lia | ]. rewrite Hl. reflexivity.
  - reflexivity.
  - rewrite (mapM_ext (run A fu inp b1) (run A fu inp b2)); auto.
    intros x Hx. apply IH. rewrite forallb_forall in Hk. auto.
  - apply andb_true_iff in Hk. destruct Hk as [H1 H2]. rewrite (IH _ H2), (IH _ H1). reflexivity.
  - apply fold_ev_ext. intros x Hx. apply IH. rewrite forallb_forall in Hk. auto.
  - apply andb_true_iff in Hk. destruct Hk as [H0 Hk]. rewrite (IH _ H0).
    destruct (run A fu inp b2 k); cbn [bind]; auto.
    apply dictfold_ev_ext. intros ko v Hin. rewrite forallb_forall in Hk. specialize (Hk _ Hin). cbn in Hk.
    apply andb_true_iff in Hk. destruct Hk as [H1 H2].
    destruct ko.
    + apply dict_term_ext; apply IH; auto.
    + destruct ecase; auto. rewrite (IH _ H2). reflexivity.
  - destruct ks as [| k0 ks']; auto. pose proof Hk as Hall. cbn [forallb] in Hk. apply andb_true_iff in Hk. destruct Hk as [H0 H1].
    rewrite (IH _ H0). destruct (run A fu inp b2 k0); cbn [bind]; auto.
    apply fold_ev_ext. intros x Hx. apply IH. apply (forallb_skipn _ from) in Hall. rewrite forallb_forall in Hall. auto.
  - destruct ks as [| k0 ks']; auto. pose proof Hk as Hall. cbn [forallb] in Hk. apply andb_true_iff in Hk. destruct Hk as [H0 H1].
    rewrite (IH _ H0). destruct (run A fu inp b2 k0); cbn [bind]; auto.
    rewrite (boolfold_ev_ext A (run A fu inp b1) (run A fu inp b2)); auto.
    intros x Hx. apply IH. apply (forallb_skipn _ from) in Hall. rewrite forallb_forall in Hall. auto.
  - rewrite (pw_scan_ext A (run A fu inp b1) (run A fu inp b2)); auto.
    intros x c Hin. rewrite forallb_forall in Hk. specialize (Hk _ Hin). cbn in Hk.
    apply andb_true_iff in Hk. destruct Hk; split; apply IH; auto.
Qed.

Lemma F2_forallb : forall {X Y} (R : X -> Y -> Prop) (p : Y -> bool) l ks,
  Forall2 R l ks -> (forall x k, R x k -> p k = true) -> forallb p ks = true.
Proof.
  induction 1; intros Hp; cbn; auto. rewrite (Hp _ _ H). auto.
Qed.

Section COMPILE.
Variables (syms : list expr) (cmap : list (expr * nat)) (j : nat).
Hypothesis Hmap : forall s idx, assoc cmap s = Some idx -> (idx < j)%nat.

Lemma compile_SB : forall bufsz fu e k, compile A fu vt lt syms cmap bufsz e = Ok k -> sb fu j k = true.
Proof using Hmap.
  intros bufsz. induction fu as [| fu IH]; intros e k Hc; [ reflexivity | ].
  apply (compile_built A lt syms cmap bufsz vt [] [] fu (fun _ kx => sb fu j kx = true)) in Hc; [ | exact IH ].
  destruct Hc as [v Hv | t xs ks Hv Hks | gen b x bk xk Hv Hb Hx | init op xs ks Hv Hks
                 | V val op item vf ecase c0 d k0 items Hv H0 Hd | op from xs ks Hv Hks | op from xs ks Hv Hks
                 | bounded l ks Hv Hks | mf i Er Hi Hm | mf idx Er Ha Hlt Hi]; cbn [sb].
  - reflexivity.
  - apply (F2_forallb _ _ _ _ Hks). auto.
  - rewrite Hb, Hx. reflexivity.
  - apply (F2_forallb _ _ _ _ Hks). auto.
  - rewrite H0. apply (F2_forallb _ _ _ _ Hd).
    intros p [ko kv] [H1 H2]. cbn [fst snd] in *. rewrite H1. destruct ko; [ destruct H2 as [_ ->] | ]; reflexivity.
  - apply (F2_forallb _ _ _ _ Hks). auto.
  - apply (F2_forallb _ _ _ _ Hks). auto.
  - apply (F2_forallb _ _ _ _ Hks). intros p q [H1 H2]. rewrite H1, H2. reflexivity.
  - reflexivity.
  - apply Nat.ltb_lt. eauto.
Qed.

(* the size of the buffer matters only through the bound check of the mapped indices *)
Lemma compile_irrel : forall b1 b2,
  (forall s idx, assoc cmap s = Some idx -> (idx < b1)%nat /\ (idx < b2)%nat) ->
  forall fu e, compile A fu vt lt syms cmap b1 e = compile A fu vt lt syms cmap b2 e.
Proof using.
  intros b1 b2 Hb. induction fu as [| fu IH]; intros e; [ reflexivity | ].
  cbn [compile]. destruct (rule_of lt e); auto.
  - rewrite (mapM_ext (fun i => do c <- nth_child e i; compile A fu vt lt syms cmap b1 c)
                      (fun i => do c <- nth_child e i; compile A fu vt lt syms cmap b2 c)); auto.
    intros i _. destruct (nth_child e i); cbn [bind]; auto.
  - rewrite (mapM_ext (compile A fu vt lt syms cmap b1) (compile A fu vt lt syms cmap b2)); auto.
  - destruct e; auto; rewrite !IH.
    + rewrite (mapM_dict_ext _ (compile A fu vt lt syms cmap b2) _ (fun v => compile A fu vt lt syms cmap b2 (ENum v))); auto.
    + rewrite (mapM_dict_ext _ (compile A fu vt lt syms cmap b2) _ (compile A fu vt lt syms cmap b2)); auto.
  - destruct e; auto. rewrite !IH. reflexivity.
  - destruct e; auto. rewrite !IH. reflexivity.
  - destruct (children e); auto.
    rewrite (mapM_ext (compile A fu vt lt syms cmap b1) (compile A fu vt lt syms cmap b2)); auto.
  - destruct (children e); auto.
    rewrite (mapM_ext (compile A fu vt lt syms cmap b1) (compile A fu vt lt syms cmap b2)); auto.
  - destruct e; auto. rewrite (mapM_pair_ext _ _ l IH). reflexivity.
  - destruct e; auto. rewrite !IH. destruct e2; auto. rewrite !IH. reflexivity.
  - destruct (assoc cmap e) as [idx |] eqn:Ea; [ | reflexivity ].
    destruct (Hb _ _ Ea) as [H1 H2]. apply Nat.ltb_lt in H1. apply Nat.ltb_lt in H2. rewrite H1, H2. reflexivity.
  - destruct (nth_child e 0); cbn [bind]; auto. rewrite IH. reflexivity.
Qed.

End COMPILE.

Notation lst := (@lstate F).

(* same closures; the buffers have the same size unless no closure can look at them *)
Definition sim (s s' : lst) : Prop :=
  st_results s = st_results s' /\ st_fns s = st_fns s' /\ st_map s = st_map s' /\ st_syms s = st_syms s' /\
  (st_map s = [] \/ length (st_buf s) = length (st_buf s')).

Lemma assoc_below : forall m b s idx, map_below m b -> assoc m s = Some idx -> (idx < b)%nat.
Proof.
  induction m as [| [k v] m IH]; intros b s idx Hm Ha; cbn in Ha; [ discriminate | ].
  inversion Hm; subst. destruct (expr_eqb k s); [ inversion Ha; subst; auto | eauto ].
Qed.

(* slot discipline: closure i of fns reads slots < i; results read slots < number of fns *)
Fixpoint fns_disc (i : nat) (fns : list (nat * @clo F)) : Prop :=
  match fns with
  | [] => True
  | (fu, k) :: r => sb fu i k = true /\ fns_disc (S i) r
  end.
Definition disc (s : lst) : Prop :=
  fns_disc 0 (st_fns s) /\
  Forall (fun p => sb (fst p) (length (st_fns s)) (snd p) = true) (st_results s) /\
  (length (st_fns s) <= length (st_buf s))%nat.

Lemma fns_disc_app : forall fns i fu k, fns_disc i fns -> sb fu (i + length fns) k = true -> fns_disc i (fns ++ [(fu, k)]).
Proof.
  induction fns as [| [fu' k'] fns IH]; intros i fu k H Hk; cbn in *.
  - rewrite Nat.add_0_r in Hk. auto.
  - destruct H. split; auto. apply IH; auto. replace (S i + length fns)%nat with (i + S (length fns))%nat by lia. auto.
Qed.

(* the invariant carried through init: everything equal but the buffer contents, the map only
   mentions slots that exist and that earlier closures write *)
Definition inv (s s' : lst) : Prop :=
  sim s s' /\ disc s /\ disc s' /\
  map_below (st_map s) (length (st_fns s)) /\
  map_below (st_map s) (length (st_buf s)) /\ map_below (st_map s) (length (st_buf s')).

(* under the invariant both states compile an expression alike, to a closure that reads only the
   slots of the closures already there *)
Lemma compile_in_inv : forall s s' e, inv s s' ->
  compile_in A vt lt s' e = compile_in A vt lt s e /\
  forall fu k, compile_in A vt lt s e = Ok (fu, k) -> sb fu (length (st_fns s)) k = true.
Proof.
  intros s s' e [[Hr [Hf [Hm [Hs Hl]]]] [_ [_ [B1 [B2 B3]]]]]. unfold compile_in. split.
  - rewrite <- Hm, <- Hs.
    rewrite (compile_irrel (st_syms s) (st_map s) (length (st_buf s)) (length (st_buf s'))); auto.
    intros x idx Ha. split; eapply assoc_below; eauto.
  - intros fu k Hc.
    destruct (compile A (eval_fuel e) vt lt (st_syms s) (st_map s) (length (st_buf s)) e) eqn:E; try discriminate.
    inversion Hc; subst. eapply compile_SB; [ | exact E ]. intros x idx Ha. eapply assoc_below; eauto.
Qed.

Definition with_results (s : lst) (k : nat * @clo F) : lst :=
  mk_st (st_results s ++ [k]) (st_fns s) (st_map s) (st_buf s) (st_syms s).

Lemma inv_with_results : forall s s' fu k, inv s s' -> sb fu (length (st_fns s)) k = true ->
  inv (with_results s (fu, k)) (with_results s' (fu, k)).
Proof.
  intros s s' fu k [[Hr [Hf [Hm [Hs Hl]]]] [[D1 [D2 D3]] [[D1' [D2' D3']] [B1 [B2 B3]]]]] Hk.
  unfold inv, sim, disc, with_results; cbn. rewrite Hr, <- Hf in *.
  repeat split; auto; apply Forall_app; split; auto.
Qed.

Lemma push_results_inv : forall outs s s', inv s s' ->
  snd (push_results A vt lt s outs) = snd (push_results A vt lt s' outs) /\
  inv (fst (push_results A vt lt s outs)) (fst (push_results A vt lt s' outs)).
Proof.
  induction outs as [| e outs IH]; intros s s' Hi; cbn [push_results]; [ split; auto | ].
  destruct (compile_in_inv s s' e Hi) as [-> Hk].
  destruct (compile_in A vt lt s e) as [[fu k] | | |]; cbn; try (split; [ reflexivity | exact Hi ]).
  apply IH. apply inv_with_results; auto.
Qed.

Lemma push_reduced_inv : forall reduced n i s s', inv s s' ->
  snd (push_reduced A vt lt s reduced n i) = snd (push_reduced A vt lt s' reduced n i) /\
  inv (fst (push_reduced A vt lt s reduced n i)) (fst (push_reduced A vt lt s' reduced n i)).
Proof.
  intros reduced. induction n as [| n IH]; intros i s s' Hi; cbn [push_reduced]; [ split; auto | ].
  destruct (nth_error reduced i) as [e |]; [ | split; auto ].
  destruct (compile_in_inv s s' e Hi) as [-> Hk].
  destruct (compile_in A vt lt s e) as [[fu k] | | |]; cbn; try (split; [ reflexivity | exact Hi ]).
  apply IH. apply inv_with_results; auto.
Qed.

Lemma sb_mono : forall j j', (j <= j')%nat -> forall fu k, sb fu j k = true -> sb fu j' k = true.
Proof.
  intros j j' Hle. induction fu as [| fu IH]; intros k H; [ reflexivity | ].
  cbn [sb] in *. destruct k; auto.
  - apply Nat.ltb_lt in H. apply Nat.ltb_lt. lia.
  - rewrite forallb_forall in *. auto.
  - apply andb_true_iff in H. destruct H. rewrite (IH _ H), (IH _ H0). reflexivity.
  - rewrite forallb_forall in *. auto.
  - apply andb_true_iff in H. destruct H as [H0 H]. rewrite (IH _ H0). cbn.
    rewrite forallb_forall in *. intros p Hp. specialize (H p Hp). apply andb_true_iff in H. destruct H as [H1 H2].
    rewrite (IH _ H2). destruct (fst p); [ rewrite (IH _ H1) | ]; reflexivity.
  - rewrite forallb_forall in *. auto.
  - rewrite forallb_forall in *. auto.
  - rewrite forallb_forall in *. intros p Hp. specialize (H p Hp). apply andb_true_iff in H. destruct H as [H1 H2].
    rewrite (IH _ H1), (IH _ H2). reflexivity.
Qed.

Definition with_fn (s : lst) (sym : expr) (k : nat * @clo F) : lst :=
  mk_st (st_results s) (st_fns s ++ [k]) (map_set (st_map s) sym (length (st_fns s))) (st_buf s) (st_syms s).

(* the step of push_reps: the new closure reads only the slots of the closures before it, and the
   symbol is mapped to the next slot, which exists in both buffers *)
Lemma inv_with_fn : forall s s' sym fu k, inv s s' -> st_results s = [] ->
  length (st_buf s) = length (st_buf s') -> (length (st_fns s) < length (st_buf s))%nat ->
  sb fu (length (st_fns s)) k = true ->
  inv (with_fn s sym (fu, k)) (with_fn s' sym (fu, k)).
Proof.
  intros s s' sym fu k [[Hr [Hf [Hm [Hs Hl]]]] [[D1 [D2 D3]] [[D1' [D2' D3']] [B1 [B2 B3]]]]] Hres Hlen Hcap Hk.
  unfold inv, sim, disc, with_fn; cbn. rewrite <- Hf, <- Hm, <- Hr, Hres. rewrite app_length. cbn [length].
  repeat split; auto.
  - apply fns_disc_app; auto.
  - lia.
  - apply fns_disc_app; auto.
  - lia.
  - apply map_set_below; [ | lia ]. apply (map_below_mono _ _ _ B1). lia.
  - apply map_set_below; auto.
  - apply map_set_below; auto. lia.
Qed.

Lemma push_reps_inv : forall reps s s', inv s s' -> st_results s = [] ->
  length (st_buf s) = length (st_buf s') ->
  (length (st_fns s) + length reps <= length (st_buf s))%nat ->
  snd (push_reps A vt lt s reps) = snd (push_reps A vt lt s' reps) /\
  inv (fst (push_reps A vt lt s reps)) (fst (push_reps A vt lt s' reps)) /\
  st_results (fst (push_reps A vt lt s reps)) = [] /\
  length (st_buf (fst (push_reps A vt lt s reps))) = length (st_buf (fst (push_reps A vt lt s' reps))).
Proof.
  induction reps as [| [sym ex] reps IH]; intros s s' Hi Hres Hlen Hcap; cbn [push_reps];
    [ cbn; split; [ reflexivity | split; [ exact Hi | split; auto ] ] | ].
  destruct (compile_in_inv s s' ex Hi) as [-> Hk].
  destruct (compile_in A vt lt s ex) as [[fu k] | | |]; cbn;
    try (split; [ reflexivity | split; [ exact Hi | split; auto ] ]).
  specialize (Hk fu k eq_refl). cbn [length] in Hcap.
  apply IH; cbn; auto.
  - apply (inv_with_fn s s' sym fu k); auto. lia.
  - rewrite app_length. cbn. lia.
Qed.

Lemma run_fns_sim : forall inp fns i b1 b2,
  fns_disc i fns -> agree_below i b1 b2 -> length b1 = length b2 ->
  snd (run_fns A inp b1 i fns) = snd (run_fns A inp b2 i fns) /\
  length (fst (run_fns A inp b1 i fns)) = length (fst (run_fns A inp b2 i fns)) /\
  length (fst (run_fns A inp b1 i fns)) = length b1 /\
  (snd (run_fns A inp b1 i fns) = Ok tt ->
   agree_below (i + length fns) (fst (run_fns A inp b1 i fns)) (fst (run_fns A inp b2 i fns))).
Proof.
  intros inp. induction fns as [| [fu k] fns IH]; intros i b1 b2 Hd Ha Hl; cbn [run_fns].
  - cbn. repeat split; auto. intros _. rewrite Nat.add_0_r. auto.
  - destruct Hd as [Hk Hd].
    rewrite (run_SB inp b1 b2 i Ha (or_intror Hl) fu k Hk).
    destruct (run A fu inp b2 k) as [v | | |]; cbn [err_of fst snd];
      try (split; [ reflexivity | split; [ assumption | split; [ reflexivity | intro Hx; discriminate Hx ] ] ]).
    rewrite <- Hl. destruct (i <? length b1)%nat eqn:Ei; cbn [fst snd];
      [ | split; [ reflexivity | split; [ assumption | split; [ reflexivity | intro Hx; discriminate Hx ] ] ] ].
    apply Nat.ltb_lt in Ei.
    assert (Ha' : agree_below (S i) (set_nth i v b1) (set_nth i v b2)).
    { intros x Hx. destruct (Nat.eq_dec x i) as [-> | Hne].
      - rewrite !set_nth_same; auto. lia.
      - rewrite !set_nth_other; auto. apply Ha. lia. }
    assert (Hl' : length (set_nth i v b1) = length (set_nth i v b2)) by (rewrite !set_nth_length; auto).
    destruct (IH (S i) _ _ Hd Ha' Hl') as [H1 [H2 [H3 H4]]].
    repeat split; auto.
    + rewrite H3. apply set_nth_length.
    + intros Hok. cbn [length]. replace (i + S (length fns))%nat with (S i + length fns)%nat by lia. auto.
Qed.

Fixpoint calls (s : lst) (vs : list (list F)) : list (res (list F)) :=
  match vs with
  | [] => []
  | v :: r => snd (call A s v) :: calls (fst (call A s v)) r
  end.

(* what [call] needs of two states *)
Definition csim (s s' : lst) : Prop :=
  st_results s = st_results s' /\ st_fns s = st_fns s' /\ disc s /\
  (st_fns s = [] \/ length (st_buf s) = length (st_buf s')).

Lemma call_csim : forall s s' v, csim s s' ->
  snd (call A s v) = snd (call A s' v) /\ csim (fst (call A s v)) (fst (call A s' v)).
Proof.
  intros s s' v [Hr [Hf [[D1 [D2 D3]] Hl]]]. unfold call. rewrite <- Hf, <- Hr.
  destruct Hl as [Hnil | Hl].
  - (* no CSE closures: the buffers are never read *)
    rewrite Hnil in *. cbn [run_fns]. cbn.
    split.
    + apply mapM_ext. intros p Hp. rewrite Forall_forall in D2.
      apply (run_SB v (st_buf s) (st_buf s') 0); [ intros i Hi; lia | left; reflexivity | apply D2; auto ].
    + unfold csim, disc; cbn. repeat split; auto.
  - pose proof (run_fns_sim v (st_fns s) 0 (st_buf s) (st_buf s') D1 (fun x Hx => ltac:(lia)) Hl) as [H1 [H2 [H3 H4]]].
    destruct (run_fns A v (st_buf s) 0 (st_fns s)) as [b1 r1] eqn:E1.
    destruct (run_fns A v (st_buf s') 0 (st_fns s)) as [b2 r2] eqn:E2. cbn in *. subst r2.
    split.
    + destruct r1 as [[] | | |]; auto.
      apply mapM_ext. intros p Hp. rewrite Forall_forall in D2.
      apply (run_SB v b1 b2 (length (st_fns s))); [ apply H4; reflexivity | auto | auto ].
    + unfold csim, disc. destruct r1 as [[] | | |]; cbn; repeat split; auto; try lia; right; auto.
Qed.

Lemma calls_csim : forall vs s s', csim s s' -> calls s vs = calls s' vs.
Proof.
  induction vs as [| v vs IH]; intros s s' H; cbn [calls]; auto.
  destruct (call_csim s s' v H) as [H1 H2]. rewrite H1. f_equal. apply IH. auto.
Qed.

Lemma push_results_fns : forall outs s, st_fns (fst (push_results A vt lt s outs)) = st_fns s.
Proof.
  induction outs as [| e outs IH]; intros s; cbn [push_results]; auto.
  destruct (compile_in A vt lt s e); cbn; auto. rewrite IH. reflexivity.
Qed.

Lemma push_reduced_buf : forall reduced n i s,
  st_buf (fst (push_reduced A vt lt s reduced n i)) = st_buf s.
Proof.
  intros reduced. induction n as [| n IH]; intros i s; cbn [push_reduced]; auto.
  destruct (nth_error reduced i); auto. destruct (compile_in A vt lt s e); cbn; auto. rewrite IH. reflexivity.
Qed.

Lemma inv_start : forall b1 b2 xs, inv (mk_st [] [] [] b1 xs) (mk_st [] [] [] b2 xs).
Proof.
  intros. unfold inv, sim, disc, map_below; cbn. repeat split; auto; try constructor; lia.
Qed.

Lemma inv_csim : forall s s', inv s s' ->
  (st_fns s = [] \/ length (st_buf s) = length (st_buf s')) -> csim s s'.
Proof.
  intros s s' [[Hr [Hf _]] [D _]] H. unfold csim. auto.
Qed.

Section MAIN.
Variable cf : bool.

(* an init that starts with an empty map (the repaired code always does; the old code when
   the map of the state is empty) is indistinguishable from the same init on a fresh object *)
Theorem reinit_fresh_gen : forall s xs es c,
  (cf = true \/ st_map s = []) ->
  snd (init A vt lt cf s xs es c) = snd (init A vt lt cf st0 xs es c) /\
  (snd (init A vt lt cf s xs es c) = Ok tt ->
   forall vs, calls (fst (init A vt lt cf s xs es c)) vs = calls (fst (init A vt lt cf st0 xs es c)) vs).
Proof.
  intros s xs es c Hmap. unfold init.
  rewrite (start_map_nil cf s Hmap), (start_map_nil cf st0 (or_intror eq_refl)).
  cbn [st_map st_buf st0].
  destruct c as [| reps reduced | cls].
  - (* no CSE *)
    pose proof (push_results_inv es _ _ (inv_start (st_buf s) [] xs)) as [Hr Hi].
    split; auto. intros _ vs. apply calls_csim. apply inv_csim; auto.
    left. rewrite push_results_fns. reflexivity.
  - (* CSE *)
    set (s2 := mk_st [] [] [] (resize A (length reps) (st_buf s)) xs).
    set (s2' := mk_st [] [] [] (resize A (length reps) []) xs).
    assert (Hl2 : length (st_buf s2) = length (st_buf s2')) by (cbn; rewrite !resize_length; reflexivity).
    assert (Hcap : (length (st_fns s2) + length reps <= length (st_buf s2))%nat) by (cbn; rewrite resize_length; lia).
    pose proof (push_reps_inv reps s2 s2' (inv_start _ _ xs) eq_refl Hl2 Hcap) as [Hr3 [Hi3 [Hres3 Hl3]]].
    destruct (push_reps A vt lt s2 reps) as [s3 r3] eqn:E3.
    destruct (push_reps A vt lt s2' reps) as [s3' r3'] eqn:E3'. cbn [fst snd] in *. subst r3'.
    destruct r3 as [[] | | |]; try (split; [ reflexivity | intro Hx; discriminate Hx ]).
    pose proof (push_reduced_inv reduced (length es) 0 s3 s3' Hi3) as [Hr4 Hi4].
    pose proof (push_reduced_buf reduced (length es) 0 s3) as Hb4.
    pose proof (push_reduced_buf reduced (length es) 0 s3') as Hb4'.
    destruct (push_reduced A vt lt s3 reduced (length es) 0) as [s4 r4] eqn:E4.
    destruct (push_reduced A vt lt s3' reduced (length es) 0) as [s4' r4'] eqn:E4'. cbn [fst snd] in *. subst r4'.
    destruct r4 as [[] | | |]; try (split; [ reflexivity | intro Hx; discriminate Hx ]).
    split; [ reflexivity | ]. intros _ vs. apply calls_csim.
    destruct Hi4 as [[Hr [Hf _]] [[D1 [D2 D3]] _]].
    unfold csim, disc; cbn. repeat split; auto. right. rewrite Hb4, Hb4'. auto.
  - split; [ reflexivity | intro Hx; discriminate Hx ].
Qed.

End MAIN.

End REINIT.
