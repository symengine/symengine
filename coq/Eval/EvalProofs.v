(* C12/C13 shared -- semantic lemmas about the table-driven evaluator, valid in EVERY float
   algebra (no property of the arithmetic is used):
   eval_ext          two rule tables that give related rules on every node the evaluator visits
                     compute the same result (related = equal, or Max/Min folds differing in the
                     harmless duplicate visit of the first argument). *)
From Coq Require Import List NArith ZArith Bool Lia.
From SE Require Import Eval.EvalModel.
Import ListNotations.
Local Open Scope res_scope.

Lemma mapM_ext : forall {X Y} (f g : X -> res Y) l,
  (forall x, In x l -> f x = g x) -> mapM f l = mapM g l.
Proof.
  induction l as [| a l IH]; intros H; cbn [mapM]; auto.
  rewrite (H a (or_introl eq_refl)). rewrite IH; auto. intros; apply H; right; auto.
Qed.

Lemma mapM_pair_ext : forall {X Y} (f g : X -> res Y) l, (forall x, f x = g x) -> mapM_pair f l = mapM_pair g l.
Proof.
  intros X Y f g l H. induction l as [| [a b] l IH]; cbn [mapM_pair]; auto. rewrite IH, !H. reflexivity.
Qed.

Lemma mapM_dict_ext : forall {K V Y} (fk gk : K -> res Y) (fv gv : V -> res Y) isE vf ec l,
  (forall k, fk k = gk k) -> (forall v, fv v = gv v) ->
  mapM_dict fk fv isE vf ec l = mapM_dict gk gv isE vf ec l.
Proof.
  intros K V Y fk gk fv gv isE vf ec l Hk Hv. induction l as [| [a b] l IH]; cbn [mapM_dict]; auto.
  rewrite IH, !Hk, !Hv. reflexivity.
Qed.

Section EXT.
Context {F : Type} (A : falg F).

Lemma fold_ev_ext : forall {X} (f g : X -> res F) op l acc,
  (forall x, In x l -> f x = g x) -> fold_ev A f op acc l = fold_ev A g op acc l.
Proof.
  induction l as [| a l IH]; intros acc H; cbn [fold_ev]; auto.
  rewrite (H a (or_introl eq_refl)). destruct (g a); cbn [bind]; auto.
  destruct (lift (f_bin A op acc a0)); cbn [bind]; auto.
  apply IH. intros; apply H; right; auto.
Qed.

Lemma boolfold_ev_ext : forall {X} (f g : X -> res F) op l acc,
  (forall x, In x l -> f x = g x) -> boolfold_ev A f op acc l = boolfold_ev A g op acc l.
Proof.
  induction l as [| a l IH]; intros acc H; cbn [boolfold_ev]; auto.
  assert (Hl : forall x, In x l -> f x = g x) by (intros; apply H; right; auto).
  rewrite (H a (or_introl eq_refl)).
  destruct op; auto; destruct acc; auto; try (destruct (g a); cbn [bind]; auto).
Qed.

Lemma dictfold_ev_ext : forall {K V} (t1 t2 : K -> V -> res F) op d acc,
  (forall k v, In (k, v) d -> t1 k v = t2 k v) -> dictfold_ev A t1 op acc d = dictfold_ev A t2 op acc d.
Proof.
  induction d as [| [k v] d IH]; intros acc H; cbn [dictfold_ev]; auto.
  rewrite (H k v (or_introl eq_refl)). destruct (t2 k v); cbn [bind]; auto.
  destruct (lift (f_bin A op acc a)); cbn [bind]; auto.
  apply IH. intros; apply H; right; auto.
Qed.

Lemma pw_scan_ext : forall {X} (f g : X -> res F) b n l,
  (forall x c, In (x, c) l -> f x = g x /\ f c = g c) -> pw_scan A f b n l = pw_scan A g b n l.
Proof.
  induction l as [| [x c] l IH]; intros H; cbn [pw_scan]; auto.
  destruct (H x c (or_introl eq_refl)) as [Hx Hc]. rewrite Hc. destruct (g c); cbn [bind]; auto.
  destruct (f_is1 A a); auto.
  apply IH. intros; apply H; right; auto.
Qed.

Lemma dict_term_ext : forall {K V} (k1 k2 : K -> res F) (v1 v2 : V -> res F) isE item vf ecase k v,
  k1 k = k2 k -> v1 v = v2 v ->
  dict_term A k1 v1 isE item vf ecase k v = dict_term A k2 v2 isE item vf ecase k v.
Proof.
  intros. unfold dict_term. rewrite H, H0. reflexivity.
Qed.

(* the nodes eval recurses into *)
Definition eval_subs (e : expr) : list expr :=
  children e ++
  match e with
  | EAdd c d => ENum c :: flat_map (fun p => [fst p; ENum (snd p)]) d
  | EMul c d => ENum c :: flat_map (fun p => [fst p; snd p]) d
  | EPw l => flat_map (fun p => [fst p; snd p]) l
  | ELex _ x (EInterval s t _ _) => [x; s; t]
  | _ => []
  end.

Lemma in_children_subs : forall e c, In c (children e) -> In c (eval_subs e).
Proof. intros. unfold eval_subs. apply in_or_app. auto. Qed.

Lemma nth_child_in : forall e i c, nth_child e i = Ok c -> In c (children e).
Proof.
  unfold nth_child. intros e i c. destruct (nth_error (children e) i) eqn:E; intro H; inversion H; subst.
  eapply nth_error_In; eauto.
Qed.

Lemma skipn_in : forall {X} n (l : list X) x, In x (skipn n l) -> In x l.
Proof.
  induction n; intros l x H; destruct l; cbn in *; auto; try contradiction.
Qed.

Section TWO.
Variables vt tbl1 tbl2 : list (N * rule).

(* the rules of the two tables for one node compute the same thing *)
Definition rule_rel (e : expr) (r1 r2 : rule) : Prop :=
  r1 = r2 \/
  (exists op, r1 = RFoldFirst op 1 /\ r2 = RFoldFirst op 0 /\ forall a, f_bin A op a a = Some a) \/
  (* Constant: the lambda visitor stores eval_double(x) *)
  (exists t, r1 = RConstants t /\ r2 = RConstViaEval /\ rule_of vt e = RConstants t).

Inductive Covered : nat -> expr -> Prop :=
| Cov0 : forall e, Covered 0 e
| CovS : forall fu e,
    rule_rel e (rule_of tbl1 e) (rule_of tbl2 e) ->
    (forall s, In s (eval_subs e) -> Covered fu s) ->
    Covered (S fu) e.

Theorem eval_ext : forall syms inp extra fu e,
  Covered fu e ->
  eval A fu vt tbl1 syms inp extra e = eval A fu vt tbl2 syms inp extra e.
Proof.
  induction fu as [| fu IH]; intros e Hc; [ reflexivity | ].
  inversion Hc as [| fu' e' Hrel Hsub]; subst.
  assert (IHs : forall s, In s (eval_subs e) ->
            eval A fu vt tbl1 syms inp extra s = eval A fu vt tbl2 syms inp extra s).
  { intros s Hs. apply IH. apply Hsub. auto. }
  assert (IHc : forall s, In s (children e) ->
            eval A fu vt tbl1 syms inp extra s = eval A fu vt tbl2 syms inp extra s).
  { intros s Hs. apply IHs. apply in_children_subs. auto. }
  cbn [eval].
  destruct Hrel as [Heq | [[op [H1 [H2 Hid]]] | [t [H1 [H2 H3]]]]].
  - rewrite <- Heq. destruct (rule_of tbl1 e) eqn:Er; auto.
    + (* RFormula *)
      rewrite (mapM_ext (fun i => do c <- nth_child e i; eval A fu vt tbl1 syms inp extra c)
                        (fun i => do c <- nth_child e i; eval A fu vt tbl2 syms inp extra c)); [ reflexivity | ].
      intros i _. destruct (nth_child e i) eqn:En; cbn [bind]; auto.
      apply IHc. eapply nth_child_in; eauto.
    + (* RFoldArgs *) apply fold_ev_ext. auto.
    + (* RFoldDict *)
      destruct e; auto;
        (rewrite IHs by (unfold eval_subs; apply in_or_app; right; left; auto));
        (destruct (eval A fu vt tbl2 syms inp extra (ENum coef)); cbn [bind]; auto);
        apply dictfold_ev_ext; intros k v Hin; apply dict_term_ext; apply IHs; unfold eval_subs;
        apply in_or_app; right; right; apply in_flat_map; exists (k, v); cbn; auto.
    + (* RPow *)
      destruct e; auto.
      rewrite (IHc e2) by (cbn; auto). rewrite (IHc e1) by (cbn; auto). reflexivity.
    + (* RPowPlain *)
      destruct e; auto.
      rewrite (IHc e2) by (cbn; auto). rewrite (IHc e1) by (cbn; auto). reflexivity.
    + (* RFoldFirst *)
      destruct (children e) as [| c0 rest] eqn:Ech; auto.
      rewrite (IHc c0) by (left; auto).
      destruct (eval A fu vt tbl2 syms inp extra c0); cbn [bind]; auto.
      apply fold_ev_ext. intros x Hx. apply IHc. eapply skipn_in; eauto.
    + (* RBoolFold *)
      destruct (children e) as [| c0 rest] eqn:Ech; auto.
      rewrite (IHc c0) by (left; auto).
      destruct (eval A fu vt tbl2 syms inp extra c0); cbn [bind]; auto.
      rewrite (boolfold_ev_ext (eval A fu vt tbl1 syms inp extra) (eval A fu vt tbl2 syms inp extra)); [ reflexivity | ].
      intros x Hx. apply IHc. eapply skipn_in; eauto.
    + (* RPiecewise *)
      destruct e; auto.
      apply pw_scan_ext. intros x c Hin.
      split; apply IHs; unfold eval_subs; cbn [children app]; apply in_flat_map; exists (x, c); cbn; auto.
    + (* RContains *)
      destruct e; auto. destruct e2; auto;
        try (rewrite (IHc e1) by (cbn; auto); reflexivity).
      rewrite (IHs e1) by (unfold eval_subs; apply in_or_app; right; cbn; auto).
      rewrite (IHs e2_1) by (unfold eval_subs; apply in_or_app; right; cbn; auto).
      rewrite (IHs e2_2) by (unfold eval_subs; apply in_or_app; right; cbn; auto).
      reflexivity.
    + (* RPass *)
      destruct (nth_child e 0) eqn:En; cbn [bind]; auto.
      apply IHc. eapply nth_child_in; eauto.
  - (* Max / Min with the duplicated first argument *)
    rewrite H1, H2.
    destruct (children e) as [| c0 rest] eqn:Ech; auto.
    rewrite (IHc c0) by (left; auto).
    destruct (eval A fu vt tbl2 syms inp extra c0) eqn:E0; cbn [bind]; auto.
    cbn [skipn fold_ev]. rewrite E0. cbn [bind]. rewrite Hid. cbn [lift bind].
    apply fold_ev_ext. intros x Hx. apply IHc. right; auto.
  - (* Constant through eval_double *)
    rewrite H1, H2. unfold eval_const_via. rewrite H3. reflexivity.
Qed.

End TWO.
End EXT.
