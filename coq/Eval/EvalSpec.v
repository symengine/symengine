(* C12 -- the mathematical specification of each node class (schoolbook definitions):
   direct functions by their defining expression, inverse functions by their characterisation
   (principal range + the function they invert), independent of the libm composition the
   library uses.  [spec_table] is hand-written; the formulas are generated (Gen_EvalRules.v). *)
From Coq Require Import Reals Lra Lia ZArith NArith List Bool.
From Flocq Require Import Core.Raux.
From SE Require Import Gen.TypeCodes Eval.EvalModel Eval.EvalIdeal.
Import ListNotations.
Local Open Scope R_scope.

Inductive cspec :=
| SFun (dom : R -> Prop) (f : R -> R)                 (* the value is f x on dom *)
| SInv (dom : R -> Prop) (char : R -> R -> Prop)      (* the value y satisfies char x y on dom *)
| SFun2 (dom : R -> R -> Prop) (f : R -> R -> R).

Definition sgn_R (x : R) : R := if Req_EM_T x 0 then 0 else if Rlt_dec x 0 then -1 else 1.

Section SPEC.
Variables gamma_R lgamma_R erf_R erfc_R : R -> R.
Variable lit_other : lit -> R.
Notation interpR := (interp_R gamma_R lgamma_R erf_R erfc_R lit_other).

Definition all1 : R -> Prop := fun _ => True.
Definition all2 : R -> R -> Prop := fun _ _ => True.
Definition out1 (x : R) : Prop := x <= -1 \/ 1 <= x.         (* |x| >= 1 *)

Definition spec_table : list (N * cspec) := [
  (TC_Sin, SFun all1 sin);
  (TC_Cos, SFun all1 cos);
  (TC_Tan, SFun (fun x => cos x <> 0) (fun x => sin x / cos x));
  (TC_Cot, SFun (fun x => sin x <> 0 /\ cos x <> 0) (fun x => cos x / sin x));
  (TC_Sec, SFun (fun x => cos x <> 0) (fun x => / cos x));
  (TC_Csc, SFun (fun x => sin x <> 0) (fun x => / sin x));
  (TC_ASin, SInv (fun x => -1 <= x <= 1) (fun x y => - (PI / 2) <= y <= PI / 2 /\ sin y = x));
  (TC_ACos, SInv (fun x => -1 <= x <= 1) (fun x y => 0 <= y <= PI /\ cos y = x));
  (TC_ATan, SInv all1 (fun x y => - (PI / 2) < y < PI / 2 /\ tan y = x));
  (* SymEngine's acot is odd: acot x = atan (1/x), range (-pi/2, pi/2] without 0 *)
  (TC_ACot, SInv (fun x => x <> 0) (fun x y => - (PI / 2) < y < PI / 2 /\ tan y <> 0 /\ / tan y = x));
  (TC_ASec, SInv out1 (fun x y => 0 <= y <= PI /\ cos y <> 0 /\ / cos y = x));
  (TC_ACsc, SInv out1 (fun x y => - (PI / 2) <= y <= PI / 2 /\ sin y <> 0 /\ / sin y = x));
  (TC_Sinh, SFun all1 sinh);
  (TC_Cosh, SFun all1 cosh);
  (TC_Tanh, SFun all1 (fun x => sinh x / cosh x));
  (TC_Coth, SFun (fun x => x <> 0) (fun x => cosh x / sinh x));
  (TC_Sech, SFun all1 (fun x => / cosh x));
  (TC_Csch, SFun (fun x => x <> 0) (fun x => / sinh x));
  (TC_ASinh, SInv all1 (fun x y => sinh y = x));
  (TC_ACosh, SInv (fun x => 1 <= x) (fun x y => 0 <= y /\ cosh y = x));
  (TC_ATanh, SInv (fun x => -1 < x < 1) (fun x y => tanh y = x));
  (TC_ACoth, SInv (fun x => x < -1 \/ 1 < x) (fun x y => tanh y <> 0 /\ / tanh y = x));
  (TC_ASech, SInv (fun x => 0 < x <= 1) (fun x y => 0 <= y /\ / cosh y = x));
  (TC_ACsch, SInv (fun x => x <> 0) (fun x y => sinh y <> 0 /\ / sinh y = x));
  (TC_Log, SInv (fun x => 0 < x) (fun x y => exp y = x));
  (TC_Abs, SFun all1 Rabs);
  (TC_Gamma, SFun all1 gamma_R);
  (TC_LogGamma, SFun all1 lgamma_R);
  (TC_Erf, SFun all1 erf_R);
  (TC_Erfc, SFun all1 erfc_R);
  (TC_Sign, SFun all1 sgn_R);
  (TC_Floor, SFun all1 (fun x => IZR (Zfloor x)));
  (TC_Ceiling, SFun all1 (fun x => IZR (Zceil x)));
  (TC_Truncate, SFun all1 (fun x => IZR (Ztrunc x)));
  (TC_ATan2, SFun2 all2 atan2_R);
  (TC_Equality, SFun2 all2 (fun x y => if Req_EM_T x y then 1 else 0));
  (TC_Unequality, SFun2 all2 (fun x y => if Req_EM_T x y then 0 else 1));
  (TC_LessThan, SFun2 all2 (fun x y => if Rle_dec x y then 1 else 0));
  (TC_StrictLessThan, SFun2 all2 (fun x y => if Rlt_dec x y then 1 else 0))
].

(* the generated rule of a class meets the specification *)
Definition sat (sp : cspec) (sel : list nat) (t : fterm) : Prop :=
  match sp with
  | SFun dom f => sel = [0%nat] /\ forall x, dom x -> interpR t [x] = Some (f x)
  | SInv dom char => sel = [0%nat] /\ forall x, dom x -> exists y, interpR t [x] = Some y /\ char x y
  | SFun2 dom f => sel = [0%nat; 1%nat] /\ forall x y, dom x y -> interpR t [x; y] = Some (f x y)
  end.

(* a class the evaluator does not accept (throw) is not constrained *)
Definition rule_meets (sp : cspec) (r : option rule) : Prop :=
  match r with
  | Some (RFormula sel t) => sat sp sel t
  | Some (RThrow _) => True
  | _ => False
  end.

Definition table_ideal (tbl : list (N * rule)) : Prop :=
  forall c sp, In (c, sp) spec_table -> rule_meets sp (lookup_rule tbl c).

(* Pow: the E case is exp, the general case the real power (base > 0), and E**x = exp x *)
Definition pow_meets (r : option rule) : Prop :=
  match r with
  | Some (RPow _ ecase gen) =>
      (forall x, interpR ecase [x] = Some (exp x)) /\
      (forall b x, interpR gen [b; x] = Some (Rpower b x)) /\
      (forall x, Rpower (exp 1) x = exp x)
  | Some (RPowPlain gen) => forall b x, interpR gen [b; x] = Some (Rpower b x)
  | _ => False
  end.

(* Constant: the closed formulas of pi and E *)
Definition const_meets (r : option rule) : Prop :=
  match r with
  | Some (RConstants t) =>
      (exists ft, const_find [112; 105]%N t = Some ft /\ interpR ft [] = Some PI) /\
      (exists ft, const_find [69]%N t = Some ft /\ interpR ft [] = Some (exp 1))
  | _ => False
  end.

End SPEC.

Lemma inv_range_open : forall x, (x < -1 \/ 1 < x) -> -1 < 1 / x < 1.
Proof.
  intros x [H | H].
  - assert (H1 : 1 / x = - (/ (- x))) by (field; lra).
    rewrite H1.
    assert (0 < / (- x) < 1).
    { split. apply Rinv_0_lt_compat; lra.
      rewrite <- Rinv_1. apply Rinv_lt_contravar; lra. }
    lra.
  - assert (0 < / x < 1).
    { split. apply Rinv_0_lt_compat; lra.
      rewrite <- Rinv_1. apply Rinv_lt_contravar; lra. }
    unfold Rdiv. lra.
Qed.

(* the closed bounds: the open ones, and the two end points *)
Lemma inv_range_1 : forall x, (x <= -1 \/ 1 <= x) -> -1 <= 1 / x <= 1.
Proof.
  intros x [[H | ->] | [H | <-]].
  - pose proof (inv_range_open x (or_introl H)). lra.
  - replace (1 / -1) with (-1) by (field; lra). lra.
  - pose proof (inv_range_open x (or_intror H)). lra.
  - replace (1 / 1) with 1 by field. lra.
Qed.

Lemma inv_nonzero : forall x, x <> 0 -> 1 / x <> 0.
Proof.
  intros x Hx H. unfold Rdiv in H. rewrite Rmult_1_l in H.
  apply (Rinv_neq_0_compat x Hx H).
Qed.

Lemma inv_inv_1 : forall x, x <> 0 -> / (1 / x) = x.
Proof. intros. field. auto. Qed.

Lemma out1_nonzero : forall x, (x <= -1 \/ 1 <= x) -> x <> 0.
Proof. intros x [H | H]; lra. Qed.

Lemma asin_ok : forall x, -1 <= x <= 1 -> - (PI / 2) <= asin x <= PI / 2 /\ sin (asin x) = x.
Proof. intros x Hx. split; [ pose proof (asin_bound x); lra | apply sin_asin; auto ]. Qed.

Lemma acos_ok : forall x, -1 <= x <= 1 -> 0 <= acos x <= PI /\ cos (acos x) = x.
Proof. intros x Hx. split; [ pose proof (acos_bound x); lra | apply cos_acos; auto ]. Qed.

Lemma atan_ok : forall x, all1 x -> - (PI / 2) < atan x < PI / 2 /\ tan (atan x) = x.
Proof. intros x _. split; [ pose proof (atan_bound x); lra | apply tan_atan ]. Qed.

Lemma acosh_ok : forall x, 1 <= x -> 0 <= acosh_R x /\ cosh (acosh_R x) = x.
Proof. intros x Hx. split; [ apply acosh_nonneg | apply cosh_acosh ]; auto. Qed.

Lemma asec_ok : forall x, (x <= -1 \/ 1 <= x) ->
  0 <= acos (1 / x) <= PI /\ cos (acos (1 / x)) <> 0 /\ / cos (acos (1 / x)) = x.
Proof.
  intros x Hx. pose proof (inv_range_1 x Hx) as Hr. pose proof (out1_nonzero x Hx) as Hn.
  rewrite (cos_acos (1 / x) Hr).
  split; [ pose proof (acos_bound (1 / x)); lra | split; [ apply inv_nonzero; auto | apply inv_inv_1; auto ] ].
Qed.

Lemma acsc_ok : forall x, (x <= -1 \/ 1 <= x) ->
  - (PI / 2) <= asin (1 / x) <= PI / 2 /\ sin (asin (1 / x)) <> 0 /\ / sin (asin (1 / x)) = x.
Proof.
  intros x Hx. pose proof (inv_range_1 x Hx) as Hr. pose proof (out1_nonzero x Hx) as Hn.
  rewrite (sin_asin (1 / x) Hr).
  split; [ pose proof (asin_bound (1 / x)); lra | split; [ apply inv_nonzero; auto | apply inv_inv_1; auto ] ].
Qed.

Lemma acot_ok : forall x, x <> 0 ->
  - (PI / 2) < atan (1 / x) < PI / 2 /\ tan (atan (1 / x)) <> 0 /\ / tan (atan (1 / x)) = x.
Proof.
  intros x Hx. rewrite tan_atan.
  split; [ pose proof (atan_bound (1 / x)); lra | split; [ apply inv_nonzero; auto | apply inv_inv_1; auto ] ].
Qed.

Lemma acsch_ok : forall x, x <> 0 ->
  sinh (arcsinh (1 / x)) <> 0 /\ / sinh (arcsinh (1 / x)) = x.
Proof.
  intros x Hx. rewrite sinh_arcsinh.
  split; [ apply inv_nonzero; auto | apply inv_inv_1; auto ].
Qed.

Lemma acoth_ok : forall x, (x < -1 \/ 1 < x) ->
  tanh (atanh_R (1 / x)) <> 0 /\ / tanh (atanh_R (1 / x)) = x.
Proof.
  intros x Hx. pose proof (inv_range_open x Hx) as Hr.
  assert (Hn : x <> 0) by (destruct Hx; lra).
  rewrite (tanh_atanh (1 / x) Hr).
  split; [ apply inv_nonzero; auto | apply inv_inv_1; auto ].
Qed.

Lemma asech_ok : forall x, 0 < x <= 1 ->
  0 <= acosh_R (1 / x) /\ / cosh (acosh_R (1 / x)) = x.
Proof.
  intros x [H0 H1].
  assert (Hr : 1 <= 1 / x).
  { unfold Rdiv. rewrite Rmult_1_l. rewrite <- Rinv_1. apply Rinv_le_contravar; lra. }
  rewrite (cosh_acosh (1 / x) Hr).
  split; [ apply acosh_nonneg; auto | apply inv_inv_1; lra ].
Qed.

Lemma cot_ok : forall x, sin x <> 0 -> cos x <> 0 -> 1 / tan x = cos x / sin x.
Proof. intros. unfold tan. field. split; auto. Qed.

Lemma coth_ok : forall x, x <> 0 -> 1 / tanh x = cosh x / sinh x.
Proof.
  intros x Hx. unfold tanh. pose proof (cosh_pos x). pose proof (sinh_nonzero x Hx).
  field. split; lra.
Qed.

Lemma log_ok : forall x, 0 < x -> exp (ln x) = x.
Proof. intros. apply exp_ln; auto. Qed.
