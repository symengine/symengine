(* C12/C13 -- the evaluators agree, as a theorem about the evaluators (not only about tables):
   dispatch_agree_sem  eval_double_single_dispatch = eval_double on every tree all of whose visited
                       nodes are of a class the single-dispatch table has, in EVERY float algebra
                       in which max(a,a) = a and min(a,a) = a;
   lambda_agree_sem    the lambda table evaluates like eval_double on every tree without Add/Mul
                       nodes (those are folded in a different order). *)
From Coq Require Import List NArith ZArith Bool Lia.
From SE Require Import Gen.TypeCodes Eval.EvalModel Eval.EvalProofs Eval.Gen_EvalRules Eval.Gen_LambdaRules.
Import ListNotations.

(* every node the evaluator visits has its class in L *)
Inductive CodesIn (L : list N) : nat -> expr -> Prop :=
| CI0 : forall e, CodesIn L 0 e
| CIS : forall fu e,
    In (type_code e) L ->
    (forall s, In s (eval_subs e) -> CodesIn L fu s) ->
    CodesIn L (S fu) e.

(* the decidable version, for concrete trees *)
Fixpoint codes_in_b (L : list N) (fu : nat) (e : expr) : bool :=
  match fu with
  | O => true
  | S f => existsb (N.eqb (type_code e)) L && forallb (codes_in_b L f) (eval_subs e)
  end.

Lemma codes_in_b_sound : forall L fu e, codes_in_b L fu e = true -> CodesIn L fu e.
Proof.
  intros L. induction fu as [| fu IH]; intros e H; [ constructor | ].
  cbn [codes_in_b] in H. apply andb_true_iff in H. destruct H as [H1 H2].
  constructor.
  - apply existsb_exists in H1. destruct H1 as [c [Hc He]]. apply N.eqb_eq in He. subst. auto.
  - intros s Hs. apply IH. rewrite forallb_forall in H2. auto.
Qed.

Definition dispatch_codes : list N :=
  [TC_Integer; TC_Rational; TC_RealDouble; TC_Mul; TC_Add; TC_Pow; TC_Log; TC_Constant;
   TC_Sin; TC_Cos; TC_Tan; TC_Cot; TC_Csc; TC_Sec; TC_ASin; TC_ACos; TC_ASec; TC_ACsc; TC_ATan; TC_ACot; TC_ATan2;
   TC_Sinh; TC_Csch; TC_Cosh; TC_Sech; TC_Tanh; TC_Coth; TC_ASinh; TC_ACsch; TC_ACosh; TC_ATanh; TC_ACoth; TC_ASech;
   TC_Erf; TC_Erfc; TC_Gamma; TC_LogGamma; TC_Abs; TC_Max; TC_Min; TC_Equality; TC_Unequality; TC_LessThan;
   TC_StrictLessThan].

(* classes on which the lambda table has the rule of eval_double (Constant: through eval_double) *)
Definition lambda_same_codes : list N :=
  [TC_Integer; TC_Rational; TC_RealDouble; TC_Pow; TC_Log; TC_Constant;
   TC_Sin; TC_Cos; TC_Tan; TC_Cot; TC_Csc; TC_Sec; TC_ASin; TC_ACos; TC_ASec; TC_ACsc; TC_ATan; TC_ACot; TC_ATan2;
   TC_Sinh; TC_Csch; TC_Cosh; TC_Sech; TC_Tanh; TC_Coth; TC_ASinh; TC_ACsch; TC_ACosh; TC_ATanh; TC_ACoth; TC_ASech;
   TC_Erf; TC_Erfc; TC_Gamma; TC_LogGamma; TC_Abs; TC_Max; TC_Min; TC_Piecewise; TC_BooleanAtom;
   TC_Equality; TC_Unequality; TC_LessThan; TC_StrictLessThan; TC_UnevaluatedExpr].

Section AGREE.
Context {F : Type} (A : falg F).
Hypothesis max_idem : forall a, f_bin A BMax a a = Some a.
Hypothesis min_idem : forall a, f_bin A BMin a a = Some a.

Definition rule_at (tbl : list (N * rule)) (c : N) : rule :=
  match lookup_rule tbl c with Some r => r | None => RThrow EXN_NOTIMPL end.

(* the rule another table may have where the visitor table has r, for rule_rel to hold: r itself;
   for Max / Min the fold that visits the first argument twice; if via_eval, for Constant the value
   taken from eval_double *)
Definition variant (via_eval : bool) (r : rule) : rule :=
  match r with
  | RFoldFirst BMax 1 => RFoldFirst BMax 0
  | RFoldFirst BMin 1 => RFoldFirst BMin 0
  | RConstants t => if via_eval then RConstViaEval else r
  | _ => r
  end.

Lemma variant_rel : forall via tbl e,
  rule_of tbl e = variant via (rule_of visitor_rules e) ->
  rule_rel A visitor_rules e (rule_of visitor_rules e) (rule_of tbl e).
Proof.
  intros via tbl e ->. unfold rule_rel.
  destruct (rule_of visitor_rules e) as [ | | | | | | | | t | | op from | | | | | | | | | | ];
    try (left; reflexivity).
  - destruct via; [ right; right; exists t; auto | left; reflexivity ].
  - (* Max and Min are idempotent in A *)
    destruct op; try (left; reflexivity); destruct from as [ | [ | n ] ]; try (left; reflexivity);
      right; left; eexists; (split; [ reflexivity | split; [ reflexivity | assumption ] ]).
Qed.

(* how the two other tables differ from the visitor table on the listed classes: computed *)
Lemma dispatch_variant :
  map (rule_at dispatch_rules) dispatch_codes = map (fun c => variant false (rule_at visitor_rules c)) dispatch_codes.
Proof. vm_compute. reflexivity. Qed.

Lemma lambda_variant :
  map (rule_at lambda_rules) lambda_same_codes = map (fun c => variant true (rule_at visitor_rules c)) lambda_same_codes.
Proof. vm_compute. reflexivity. Qed.

Lemma dispatch_rel : forall e, In (type_code e) dispatch_codes ->
  rule_rel A visitor_rules e (rule_of visitor_rules e) (rule_of dispatch_rules e).
Proof.
  intros e Hin. apply (variant_rel false).
  exact (proj1 map_ext_in_iff dispatch_variant (type_code e) Hin).
Qed.

Theorem dispatch_agree_sem : forall fu e,
  CodesIn dispatch_codes fu e ->
  eval A fu visitor_rules visitor_rules [] [] [] e = eval A fu visitor_rules dispatch_rules [] [] [] e.
Proof.
  intros fu e H. apply eval_ext.
  induction H as [e | fu e Hin Hsub IH]; constructor; auto.
  apply dispatch_rel; auto.
Qed.

Lemma lambda_rel : forall e, In (type_code e) lambda_same_codes ->
  rule_rel A visitor_rules e (rule_of visitor_rules e) (rule_of lambda_rules e).
Proof.
  intros e Hin. apply (variant_rel true).
  exact (proj1 map_ext_in_iff lambda_variant (type_code e) Hin).
Qed.

Theorem lambda_agree_sem : forall syms inp extra fu e,
  CodesIn lambda_same_codes fu e ->
  eval A fu visitor_rules visitor_rules syms inp extra e
  = eval A fu visitor_rules lambda_rules syms inp extra e.
Proof.
  intros syms inp extra fu e H. apply eval_ext.
  induction H as [e | fu e Hin Hsub IH]; constructor; auto.
  apply lambda_rel; auto.
Qed.

End AGREE.
