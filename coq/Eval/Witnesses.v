(* C12/C13 -- concrete computations in the Flocq instance (empty libm oracle): non-vacuity of the
   theorems' hypotheses, and the refutation witnesses of the two defects that were repaired in the
   library (they stay provable about the UNREPAIRED variants of the model: the flag
   clear_first = false, the rule RPiecewise false). *)
From Coq Require Import List NArith ZArith Bool Lia.
From Flocq Require Import IEEE754.Binary IEEE754.Bits.
From SE Require Import Gen.TypeCodes Eval.EvalModel Eval.EvalFloat Eval.LambdaModel Eval.EvalProofs
  Eval.AgreeProofs Eval.LambdaProofs Eval.ReinitProofs Eval.Gen_EvalRules Eval.Gen_LambdaRules.
Import ListNotations.
Local Open Scope N_scope.

Definition BA := nb_arith.
Definition sym (c : N) : expr := ESym [c].
Definition x := sym 120. Definition y := sym 121. Definition z := sym 122. Definition u := sym 117.
Definition x0 := ESym [120; 48].
Definition int (k : Z) : expr := ENum (NInt k).
Definition i1 : number := NInt 1.

(* x + y, (x + y) * z, |x + y| *)
Definition xy : expr := EAdd (NInt 0) [(x, i1); (y, i1)].
Definition xyz : expr := EMul i1 [(xy, int 1); (z, int 1)].
Definition abs_xy : expr := EF1 TC_Abs xy.
(* what cse returns for the outputs [xyz; abs_xy; u] *)
Definition reps1 : list (expr * expr) := [(x0, xy)].
Definition red1 : list expr := [EMul i1 [(x0, int 1); (z, int 1)]; EF1 TC_Abs x0; u].

(* identities: they mark, in the statements below, the numbers that are bit patterns of doubles *)
Definition bits (r : res (list N)) : res (list N) := r.
Definition d (b : N) : N := b.
Definition res_map_bits (r : res N) : res N := r.

(* the max/min of the executable algebra are idempotent (hypothesis of dispatch_agree_sem) *)
Lemma b64_max_idem : forall un bin a, f_bin (b64_alg un bin) BMax a a = Some a.
Proof. intros. cbn. destruct (b64_lt a a); reflexivity. Qed.
Lemma b64_min_idem : forall un bin a, f_bin (b64_alg un bin) BMin a a = Some a.
Proof. intros. cbn. destruct (b64_lt a a); reflexivity. Qed.

(* C12 non-vacuity: 1/10 + 2*|-3| + max(7, 2, 7): visited classes all in dispatch_codes;
   both evaluators give 0x402a333333333333 = 13.1 with the TRUNCATED 1/10 *)
Definition ex12 : expr :=
  EAdd (NRat 1 10) [(EF1 TC_Abs (int (-3)), NInt 2); (EFN TC_Max [int 7; int 2; int 7], i1)].

Lemma ex12_codes : CodesIn dispatch_codes (eval_fuel ex12) ex12.
Proof. apply codes_in_b_sound. vm_compute. reflexivity. Qed.

Lemma ex12_value :
  res_map_bits (eval BA (eval_fuel ex12) visitor_rules visitor_rules [] [] [] ex12) = Ok 4623564262444577587
  /\ res_map_bits (eval BA (eval_fuel ex12) visitor_rules dispatch_rules [] [] [] ex12) = Ok 4623564262444577587.
Proof. repeat apply conj; vm_compute; reflexivity. Qed.

(* C13 non-vacuity: init (x, y, z) -> [(x+y)*z; |x+y|] with and without CSE, call (1.5, 2, 3) *)
Definition outs13 : list expr := [xyz; abs_xy].
Definition reps13 : list (expr * expr) := [(x0, xy)].
Definition red13 : list expr := [EMul i1 [(x0, int 1); (z, int 1)]; EF1 TC_Abs x0].
Definition v13 : list N := [d 4609434218613702656; d 4611686018427387904; d 4613937818241073152].

Definition INIT (cf : bool) := init BA visitor_rules lambda_rules cf.

Lemma ex13_values :
  snd (INIT true st0 [x; y; z] outs13 NoCse) = Ok tt /\
  snd (INIT true st0 [x; y; z] outs13 (CseOk reps13 red13)) = Ok tt /\
  bits (snd (call BA (fst (INIT true st0 [x; y; z] outs13 NoCse)) v13)) = Ok [4622100592565682176; 4615063718147915776] /\
  bits (snd (call BA (fst (INIT true st0 [x; y; z] outs13 (CseOk reps13 red13))) v13))
    = Ok [4622100592565682176; 4615063718147915776].
Proof. repeat apply conj; vm_compute; reflexivity. Qed.

(* the CSE result above is faithful at this input vector (hypothesis of cse_transparent) *)
Lemma ex13_faithful : cse_faithful_at BA visitor_rules lambda_rules [x; y; z] v13 outs13 reps13 red13.
Proof. unfold cse_faithful_at. vm_compute. reflexivity. Qed.

(* the defect repaired by bb4a9bd, on the UNREPAIRED variant (clear_first = false):
   a CSE init that throws (u is not an input) after the replacement x0 = x + y was entered in
   cse_intermediate_fns_map; a later init of [x0 + y] with inputs [y] then succeeds and reads
   the stale slot, while a fresh object rejects it *)
Definition stale_state := fst (INIT false st0 [x; y; z] [xyz; abs_xy; u] (CseOk reps1 red1)).
Definition out_stale : list expr := [EAdd (NInt 0) [(x0, i1); (y, i1)]].

Lemma reinit_unrepaired_witness :
  snd (INIT false st0 [x; y; z] [xyz; abs_xy; u] (CseOk reps1 red1)) = ErrExn EXN_SYMENGINE /\
  st_map stale_state = [(x0, 0%nat)] /\
  snd (INIT false stale_state [y] out_stale NoCse) = Ok tt /\
  snd (INIT false st0 [y] out_stale NoCse) = ErrExn EXN_SYMENGINE /\
  bits (snd (call BA (fst (INIT false stale_state [y] out_stale NoCse)) [d 4611686018427387904])) = Ok [4611686018427387904].
Proof. repeat apply conj; vm_compute; reflexivity. Qed.

(* the repaired init on the same history: rejected, like on a fresh object *)
Lemma reinit_repaired_same_history :
  snd (INIT true (fst (INIT true st0 [x; y; z] [xyz; abs_xy; u] (CseOk reps1 red1))) [y] out_stale NoCse)
  = ErrExn EXN_SYMENGINE.
Proof. vm_compute. reflexivity. Qed.

(* the defect repaired by d076dca, on the UNREPAIRED rule (RPiecewise false):
   Piecewise((x, 0 < x)) called at -1: the closure indexes past its vectors (ErrOOB), where
   the bounded scan (eval_double, and the repaired lambda) throws SymEngineException *)
Definition pw_open : expr := EPw [(x, EF2 TC_StrictLessThan (int 0) x)].
Definition lambda_rules_unrepaired : list (N * rule) := (TC_Piecewise, RPiecewise false) :: lambda_rules.

Lemma piecewise_unrepaired_witness :
  snd (init BA visitor_rules lambda_rules_unrepaired true st0 [x] [pw_open] NoCse) = Ok tt /\
  bits (snd (call BA (fst (init BA visitor_rules lambda_rules_unrepaired true st0 [x] [pw_open] NoCse)) [d 13830554455654793216]))
    = ErrOOB 1 1 /\
  bits (snd (call BA (fst (INIT true st0 [x] [pw_open] NoCse)) [d 13830554455654793216])) = ErrExn EXN_SYMENGINE /\
  bits (snd (call BA (fst (INIT true st0 [x] [pw_open] NoCse)) [d 4607182418800017408])) = Ok [4607182418800017408].
Proof. repeat apply conj; vm_compute; reflexivity. Qed.

(* a tree for lambda_agree_sem (no Add/Mul node): |-7/2| ** 2 < 13 *)
Definition ex_same : expr := EF2 TC_StrictLessThan (EPow (EF1 TC_Abs (ENum (NRat (-7) 2))) (int 2)) (int 13).
Lemma ex_same_codes : CodesIn lambda_same_codes (eval_fuel ex_same) ex_same.
Proof. apply codes_in_b_sound. vm_compute. reflexivity. Qed.
