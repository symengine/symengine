(* C13 -- staging correctness of the lambda visitor, in EVERY float algebra:
   compile_sound   if LambdaRealDoubleVisitor::apply(e) succeeds, calling the resulting closure on
                   an input vector computes exactly what the direct evaluator of the same rule
                   table computes for e at those inputs (CSE symbols read from the buffer slots
                   that the map assigned to them);
   call_sound      after a successful non-CSE init, call returns the values of the outputs at
                   the inputs;
   cse_transparent after a successful CSE init, call computes the replacements in order and then the
                   reduced expressions (cse_call_spec); where that is faithful to the outputs,
                   enabling CSE does not change the results. *)
From Coq Require Import List NArith ZArith Bool Lia.
From SE Require Import Eval.EvalModel Eval.EvalProofs Eval.LambdaModel.
Import ListNotations.
Local Open Scope res_scope.

Lemma bind_ok : forall {X Y} (r : res X) (f : X -> res Y) y,
  bind r f = Ok y -> exists x, r = Ok x /\ f x = Ok y.
Proof. intros X Y [x | | |] f y H; cbn in H; try discriminate. eauto. Qed.

Lemma mapM_F2 : forall {X Y} (f : X -> res Y) (R : X -> Y -> Prop) l ks,
  (forall x k, f x = Ok k -> R x k) -> mapM f l = Ok ks -> Forall2 R l ks.
Proof.
  induction l as [| a l IH]; intros ks H Hm; cbn [mapM] in Hm.
  - inversion Hm. constructor.
  - destruct (f a) eqn:Ea; try discriminate. destruct (mapM f l) eqn:El; try discriminate.
    inversion Hm; subst. constructor; auto.
Qed.

Lemma mapM_F2_run : forall {X Y Z} (rn : Y -> res Z) (ev : X -> res Z) l ks,
  Forall2 (fun x k => rn k = ev x) l ks -> mapM rn ks = mapM ev l.
Proof.
  induction 1; cbn [mapM]; auto. rewrite H, IHForall2. reflexivity.
Qed.

Lemma mapM_bind_ok : forall {I X Y} (g : I -> res X) (f : X -> res Y) l ks,
  mapM (fun i => do c <- g i; f c) l = Ok ks -> exists xs, mapM g l = Ok xs /\ mapM f xs = Ok ks.
Proof.
  induction l as [| i l IH]; intros ks H; cbn [mapM] in *.
  - exists []. auto.
  - destruct (g i) as [c | | |]; cbn [bind] in H; try discriminate.
    destruct (f c) eqn:Ef; try discriminate.
    destruct (mapM (fun i => do c <- g i; f c) l); try discriminate.
    destruct (IH _ eq_refl) as [xs [H1 H2]]. exists (c :: xs). rewrite H1. cbn [mapM]. rewrite Ef, H2. auto.
Qed.

Lemma mapM_bind : forall {I X} (g : I -> res X) l xs, mapM g l = Ok xs ->
  forall {Y} (f : X -> res Y), mapM (fun i => do c <- g i; f c) l = mapM f xs.
Proof.
  induction l as [| i l IH]; intros xs H Y f; cbn [mapM] in *.
  - inversion H. reflexivity.
  - destruct (g i); try discriminate. destruct (mapM g l); try discriminate.
    inversion H; subst. cbn [bind mapM]. rewrite (IH _ eq_refl). reflexivity.
Qed.

Lemma F2_skipn : forall {X Y} (R : X -> Y -> Prop) n l ks, Forall2 R l ks -> Forall2 R (skipn n l) (skipn n ks).
Proof.
  induction n; intros l ks H; cbn; auto. destruct H; cbn; auto.
Qed.

Lemma skipn_nth_error : forall {X} i (l : list X) x, nth_error l i = Some x -> skipn i l = x :: skipn (S i) l.
Proof.
  induction i; intros [| a l] x H; cbn in *; try discriminate.
  - inversion H; reflexivity.
  - apply IHi; auto.
Qed.

Lemma F2_length : forall {X Y} (R : X -> Y -> Prop) l ks, Forall2 R l ks -> length l = length ks.
Proof. induction 1; cbn; auto. Qed.

Lemma F2_impl : forall {X Y} (R1 R2 : X -> Y -> Prop) l l',
  (forall a b, R1 a b -> R2 a b) -> Forall2 R1 l l' -> Forall2 R2 l l'.
Proof. induction 2; constructor; auto. Qed.

Definition has_ecase (ecase : option fterm) : bool := match ecase with Some _ => true | None => false end.

(* an entry of a compiled dictionary: the closure of the value, and the closure of the key unless
   the entry is the E case *)
Definition entry_rel {F V} (R : expr -> @clo F -> Prop) (val : V -> expr) (isE : expr -> bool)
           (p : expr * V) (q : option (@clo F) * @clo F) : Prop :=
  R (val (snd p)) (snd q) /\
  match fst q with Some k => isE (fst p) = false /\ R (fst p) k | None => isE (fst p) = true end.

Section BUILT.
Context {F : Type} (A : falg F).
Variable tbl : list (N * rule).
Variables (syms : list expr) (cmap : list (expr * nat)) (bufsz : nat).

(* One level of [compile], by the kind of closure it builds: k is the closure of e, given that the
   subterms it recurses into are related to their closures by R; beside it, what [eval] computes at
   the same node (node) from the values (evs) of the same subterms.  The twenty rules build ten
   kinds of node; every invariant of compiled closures is proved by cases on this. *)
Inductive built (R : expr -> @clo F -> Prop) (evs : expr -> res F) (node : res F) (e : expr) : @clo F -> Prop :=
| BVal v : node = Ok v -> built R evs node e (KVal v)
| BForm t xs ks :
    node = (do vs <- mapM evs xs; lift (interp A t vs)) -> Forall2 R xs ks -> built R evs node e (KForm t ks)
| BPow gen b x bk xk :
    node = (do xv <- evs x; do bv <- evs b; lift (interp A gen [bv; xv])) -> R b bk -> R x xk ->
    built R evs node e (KPow gen bk xk)
| BFoldArgs init op xs ks :
    node = fold_ev A evs op init xs -> Forall2 R xs ks -> built R evs node e (KFoldArgs init op ks)
| BFoldDict V (val : V -> expr) op item vf ecase c0 (d : list (expr * V)) k0 items :
    node = (do a0 <- evs c0;
            dictfold_ev A (dict_term A evs (fun v => evs (val v)) is_E item vf ecase) op a0 d) ->
    R c0 k0 -> Forall2 (entry_rel R val (fun a => has_ecase ecase && is_E a)) d items ->
    built R evs node e (KFoldDict op item vf ecase k0 items)
| BFoldFirst op from xs ks :
    node = match xs with
           | [] => ErrOOB 0 0
           | c0 :: _ => do r <- evs c0; fold_ev A evs op r (skipn from xs)
           end ->
    Forall2 R xs ks -> built R evs node e (KFoldFirst op from ks)
| BBoolFold op from xs ks :
    node = match xs with
           | [] => ErrOOB 0 0
           | c0 :: _ => do r <- evs c0; do b <- boolfold_ev A evs op (f_true A r) (skipn from xs); Ok (f_bool A b)
           end ->
    Forall2 R xs ks -> built R evs node e (KBoolFold op from ks)
| BPw bounded l ks :
    node = pw_scan A evs bounded (N.of_nat (length l)) l ->
    Forall2 (fun p q => R (fst p) (fst q) /\ R (snd p) (snd q)) l ks -> built R evs node e (KPw bounded ks)
| BIn mf i :
    rule_of tbl e = RSymbol mf -> index_of syms e 0 = Some i -> (mf = true -> assoc cmap e = None) ->
    built R evs node e (KIn i)
| BSlot mf idx :
    rule_of tbl e = RSymbol mf -> assoc cmap e = Some idx -> (idx < bufsz)%nat ->
    (mf = false -> index_of syms e 0 = None) -> built R evs node e (KSlot idx).

Lemma mapM_pair_F2 : forall {X} (f : X -> res (@clo F)) (R : X -> @clo F -> Prop) l ks,
  (forall x k, f x = Ok k -> R x k) -> mapM_pair f l = Ok ks ->
  Forall2 (fun p q => R (fst p) (fst q) /\ R (snd p) (snd q)) l ks.
Proof.
  induction l as [| [x c] l IH]; intros ks H Hm; cbn [mapM_pair] in Hm.
  - inversion Hm. constructor.
  - apply bind_ok in Hm as (a' & Ha & Hm). apply bind_ok in Hm as (b' & Hb & Hm).
    apply bind_ok in Hm as (r' & Hr & Hm). inversion Hm; subst.
    constructor; cbn; auto.
Qed.

Lemma mapM_dict_F2 : forall {V} (f : expr -> res (@clo F)) (R : expr -> @clo F -> Prop) (val : V -> expr)
                            isE vf ec (d : list (expr * V)) items,
  (forall x k, f x = Ok k -> R x k) -> mapM_dict f (fun v => f (val v)) isE vf ec d = Ok items ->
  Forall2 (entry_rel R val (fun a => ec && isE a)) d items.
Proof.
  intros V f R val isE vf ec d items HR. revert items.
  induction d as [| [a b] d IH]; intros items H; cbn [mapM_dict] in H.
  - inversion H. constructor.
  - apply bind_ok in H as (it & Hi & H). apply bind_ok in H as (r & Hr & H).
    inversion H; subst. constructor; auto. unfold entry_rel. cbn [fst snd].
    destruct (ec && isE a).
    + apply bind_ok in Hi as (b' & Hb & Hi). inversion Hi; subst. cbn. auto.
    + destruct vf; apply bind_ok in Hi as (x1 & H1 & Hi); apply bind_ok in Hi as (x2 & H2 & Hi); inversion Hi; subst; cbn; auto.
Qed.

Variables (vt : list (N * rule)) (inp : list F) (extra : list (expr * F)).
Notation cp fu := (compile A fu vt tbl syms cmap bufsz).
Notation ev fu := (eval A fu vt tbl syms inp extra).

Lemma compile_built : forall fu (R : expr -> @clo F -> Prop) e k,
  (forall x kx, cp fu x = Ok kx -> R x kx) -> cp (S fu) e = Ok k -> built R (ev fu) (ev (S fu) e) e k.
Proof.
  intros fu R e k HR Hc. cbn [compile] in Hc. cbn [eval].
  destruct (rule_of tbl e) eqn:Er.
  1-3: (* RLeafInt, RLeafRat, RLeafDbl *)
    destruct e; try discriminate; destruct n; try discriminate; injection Hc as <-; apply BVal; reflexivity.
  - (* RFormula: the selected children exist, since compile succeeded *)
    apply bind_ok in Hc as (ks & Hks & Hc). injection Hc as <-.
    apply mapM_bind_ok in Hks. destruct Hks as [xs [Hxs Hks]].
    apply (BForm R _ _ e t xs).
    + rewrite (mapM_bind _ _ _ Hxs). reflexivity.
    + eapply mapM_F2; eauto.
  - (* RFoldArgs *)
    apply bind_ok in Hc as (ks & Hks & Hc). injection Hc as <-.
    apply (BFoldArgs R _ _ e _ op (children e)); [ reflexivity | ]. eapply mapM_F2; eauto.
  - (* RFoldDict: Add (values are numbers) and Mul (values are expressions) *)
    destruct e; try discriminate;
      apply bind_ok in Hc as (k0 & Hk0 & Hc); apply bind_ok in Hc as (items & Hit & Hc);
      injection Hc as <-.
    + apply (BFoldDict R _ _ _ number ENum op item val_first ecase (ENum coef) d); auto.
      apply (mapM_dict_F2 (cp fu) R ENum) in Hit; auto.
    + apply (BFoldDict R _ _ _ expr (fun v => v) op item val_first ecase (ENum coef) d); auto.
      apply (mapM_dict_F2 (cp fu) R (fun v => v)) in Hit; auto.
  - (* RPow *)
    destruct e; try discriminate.
    apply bind_ok in Hc as (xk & Hx & Hc).
    destruct (is_E e1).
    + injection Hc as <-. apply (BForm R _ _ _ ecase [e2]); [ | auto ].
      cbn [mapM]. destruct (ev fu e2); reflexivity.
    + apply bind_ok in Hc as (bk & Hb & Hc). injection Hc as <-.
      apply (BPow R _ _ _ gen e1 e2); auto.
  - (* RPowPlain *)
    destruct e; try discriminate.
    apply bind_ok in Hc as (bk & Hb & Hc). apply bind_ok in Hc as (xk & Hx & Hc).
    injection Hc as <-. apply (BForm R _ _ _ gen [e1; e2]); [ | auto ].
    cbn [mapM]. destruct (ev fu e1); cbn [bind]; auto. destruct (ev fu e2); reflexivity.
  - (* RConstants *)
    destruct e; try discriminate. unfold eval_constant.
    destruct (const_find name tbl0); try discriminate. injection Hc as <-.
    apply (BForm R _ _ _ f []); auto.
  - (* RConstViaEval *)
    apply bind_ok in Hc as (v & Hv & Hc). injection Hc as <-.
    apply BVal. exact Hv.
  - (* RFoldFirst *)
    destruct (children e) eqn:Ech; try discriminate. rewrite <- Ech in Hc.
    apply bind_ok in Hc as (ks & Hks & Hc). injection Hc as <-.
    apply (BFoldFirst R _ _ e op from (children e)); [ rewrite Ech; reflexivity | ]. eapply mapM_F2; eauto.
  - (* RBoolFold *)
    destruct (children e) eqn:Ech; try discriminate. rewrite <- Ech in Hc.
    apply bind_ok in Hc as (ks & Hks & Hc). injection Hc as <-.
    apply (BBoolFold R _ _ e op from (children e)); [ rewrite Ech; reflexivity | ]. eapply mapM_F2; eauto.
  - (* RBoolAtom *) destruct e; try discriminate. injection Hc as <-. apply BVal. reflexivity.
  - (* RPiecewise *)
    destruct e; try discriminate.
    apply bind_ok in Hc as (ks & Hks & Hc). injection Hc as <-.
    apply (BPw R _ _ _ bounded l); [ reflexivity | ]. eapply mapM_pair_F2; eauto.
  - (* RContains *)
    destruct e; try discriminate. destruct e2; try discriminate;
      try (apply bind_ok in Hc as (xk & Hx & Hc); discriminate).
    apply bind_ok in Hc as (xk & Hx & Hc). apply bind_ok in Hc as (sk & Hs & Hc).
    apply bind_ok in Hc as (tk & Ht & Hc). injection Hc as <-.
    apply (BForm R _ _ _ _ [e1; e2_1; e2_2]); [ | auto ].
    cbn [mapM]. destruct (ev fu e1); cbn [bind]; auto.
    destruct (ev fu e2_1); cbn [bind]; auto. destruct (ev fu e2_2); reflexivity.
  - (* RSymbol *)
    destruct map_first.
    + destruct (assoc cmap e) as [idx |] eqn:Ea.
      * destruct (idx <? bufsz)%nat eqn:Elt; try discriminate. injection Hc as <-.
        apply (BSlot R _ _ e true idx); auto; [ apply Nat.ltb_lt; auto | discriminate ].
      * destruct (index_of syms e 0) as [i |] eqn:Ei; [ injection Hc as <- | discriminate ].
        apply (BIn R _ _ e true i); auto.
    + destruct (index_of syms e 0) as [i |] eqn:Ei.
      * injection Hc as <-. apply (BIn R _ _ e false i); auto. discriminate.
      * destruct (assoc cmap e) as [idx |] eqn:Ea; try discriminate.
        destruct (idx <? bufsz)%nat eqn:Elt; try discriminate. injection Hc as <-.
        apply (BSlot R _ _ e false idx); auto. apply Nat.ltb_lt; auto.
  - (* RInfty *)
    destruct e; try discriminate. destruct n; try discriminate.
    destruct (dir <? 0)%Z; [ injection Hc as <-; apply BVal; reflexivity | ].
    destruct (0 <? dir)%Z; [ injection Hc as <- | discriminate ]. apply BVal. reflexivity.
  - (* RNaN *) injection Hc as <-. apply BVal. reflexivity.
  - (* RPass *)
    apply bind_ok in Hc as (c & Hn & Hc). apply bind_ok in Hc as (k0 & Hk & Hc).
    injection Hc as <-. apply (BForm R _ _ e (FArg 0) [c]); [ | auto ].
    rewrite Hn. cbn [bind mapM]. destruct (ev fu c); reflexivity.
  - (* RWrapper *) discriminate.
  - (* RThrow *) discriminate.
Qed.

End BUILT.

Section SOUND.
Context {F : Type} (A : falg F).

Lemma fold_F2 : forall {X} (rn : @clo F -> res F) (ev : X -> res F) op l ks,
  Forall2 (fun x k => rn k = ev x) l ks -> forall acc, fold_ev A rn op acc ks = fold_ev A ev op acc l.
Proof.
  induction 1; intros acc; cbn [fold_ev]; auto. rewrite H.
  destruct (ev x); cbn [bind]; auto. destruct (lift (f_bin A op acc a)); cbn [bind]; auto.
Qed.

Lemma boolfold_F2 : forall {X} (rn : @clo F -> res F) (ev : X -> res F) op l ks,
  Forall2 (fun x k => rn k = ev x) l ks -> forall acc, boolfold_ev A rn op acc ks = boolfold_ev A ev op acc l.
Proof.
  induction 1; intros acc; cbn [boolfold_ev]; auto. rewrite H.
  destruct op; auto; destruct acc; auto; try (destruct (ev x); cbn [bind]; auto).
Qed.

Lemma pw_F2 : forall {X} (rn : @clo F -> res F) (ev : X -> res F) b n l ks,
  Forall2 (fun p q => rn (fst q) = ev (fst p) /\ rn (snd q) = ev (snd p)) l ks ->
  pw_scan A rn b n ks = pw_scan A ev b n l.
Proof.
  induction 1; cbn [pw_scan]; auto. destruct x as [x c], y as [kx kc]. cbn in H. destruct H as [Hx Hc].
  rewrite Hc. destruct (ev c); cbn [bind]; auto. destruct (f_is1 A a); auto.
Qed.

(* running the compiled entries of a dictionary is evaluating the dictionary *)
Lemma dict_F2 : forall {V} (rn : @clo F -> res F) (ev : expr -> res F) (val : V -> expr) op item vf ecase d items,
  Forall2 (entry_rel (fun x k => rn k = ev x) val (fun a => has_ecase ecase && is_E a)) d items ->
  forall a,
    dictfold_ev A (fun (ko : option (@clo F)) v =>
                     match ko with
                     | Some k => dict_term A rn rn (fun _ => false) item vf None k v
                     | None => match ecase with
                               | Some t => do vv <- rn v; lift (interp A t [vv])
                               | None => ErrExn EXN_STD
                               end
                     end) op a items
    = dictfold_ev A (dict_term A ev (fun v => ev (val v)) is_E item vf ecase) op a d.
Proof.
  induction 1 as [| [x v] [ko kv] d items [Hv Hk] _ IH]; intros a; cbn [dictfold_ev]; [ reflexivity | ].
  cbn [fst snd] in Hv, Hk.
  match goal with |- bind ?l _ = bind ?r _ => assert (Ht : l = r) end.
  { unfold dict_term. destruct ko as [k |].
    - destruct Hk as [HE Hk]. rewrite Hk, Hv. destruct ecase; cbn in HE; [ rewrite HE | ]; reflexivity.
    - destruct ecase as [t |]; [ | discriminate ]. cbn in Hk. rewrite Hk, Hv. reflexivity. }
  rewrite Ht. destruct (dict_term A ev (fun v0 => ev (val v0)) is_E item vf ecase x v); cbn [bind]; auto.
  destruct (lift (f_bin A op a a0)); cbn [bind]; auto.
Qed.

(* the buffer slot the map assigns to a symbol holds the value the evaluator uses for it *)
Definition env_rel (cmap : list (expr * nat)) (bufsz : nat) (buf : list F) (extra : list (expr * F)) : Prop :=
  forall s,
    match assoc cmap s with
    | Some idx => (idx < bufsz)%nat -> exists v, nth_error buf idx = Some v /\ assoc extra s = Some v
    | None => assoc extra s = None
    end.

Section ONE.
Variables vt tbl : list (N * rule).
Variables (syms : list expr) (cmap : list (expr * nat)) (bufsz : nat).
Variables (inp buf : list F) (extra : list (expr * F)).
Hypothesis Henv : env_rel cmap bufsz buf extra.

Notation cp fu := (compile A fu vt tbl syms cmap bufsz).
Notation rn fu := (run A fu inp buf).
Notation ev fu := (eval A fu vt tbl syms inp extra).

Theorem compile_sound : forall fu e k, cp fu e = Ok k -> rn fu k = ev fu e.
Proof using Henv.
  induction fu as [| fu IH]; intros e k Hc; [ discriminate | ].
  apply (compile_built A tbl syms cmap bufsz vt inp extra fu (fun x kx => rn fu kx = ev fu x)) in Hc;
    [ | exact IH ].
  destruct Hc as [v Hv | t xs ks Hv Hks | gen b x bk xk Hv Hb Hx | init op xs ks Hv Hks
                 | V val op item vf ecase c0 d k0 items Hv H0 Hd | op from xs ks Hv Hks | op from xs ks Hv Hks
                 | bounded l ks Hv Hks | mf i Er Hi Hm | mf idx Er Ha Hlt Hi]; cbn [run].
  - rewrite Hv. reflexivity.
  - rewrite Hv, (mapM_F2_run _ _ _ _ Hks). reflexivity.
  - rewrite Hv, Hx, Hb. reflexivity.
  - rewrite Hv. apply fold_F2. exact Hks.
  - rewrite Hv, H0. destruct (ev fu c0); cbn [bind]; auto. apply (dict_F2 (rn fu) (ev fu)). exact Hd.
  - rewrite Hv. pose proof (F2_skipn _ from _ _ Hks) as Hsk.
    destruct Hks as [| x k0 xs ks Hx _]; [ reflexivity | ].
    rewrite Hx. destruct (ev fu x); cbn [bind]; auto. apply fold_F2. exact Hsk.
  - rewrite Hv. pose proof (F2_skipn _ from _ _ Hks) as Hsk.
    destruct Hks as [| x k0 xs ks Hx _]; [ reflexivity | ].
    rewrite Hx. destruct (ev fu x); cbn [bind]; auto. rewrite (boolfold_F2 _ _ _ _ _ Hsk). reflexivity.
  - rewrite Hv, <- (F2_length _ _ _ Hks). apply pw_F2. exact Hks.
  - (* an input symbol: with the map searched first, the map (hence the environment) lacks it *)
    pose proof (Henv e) as He. cbn [eval]. rewrite Er, Hi.
    destruct mf; [ rewrite (Hm eq_refl) in He; rewrite He | ]; reflexivity.
  - (* a CSE symbol: the slot holds its value *)
    pose proof (Henv e) as He. rewrite Ha in He. destruct (He Hlt) as [v [Hv1 Hv2]].
    cbn [eval]. rewrite Er, Hv1, Hv2. destruct mf; [ | rewrite (Hi eq_refl) ]; reflexivity.
Qed.

End ONE.
End SOUND.

(* the map an init starts from, when it clears it first or finds it empty *)
Lemma start_map_nil : forall {F} (cf : bool) (s : @lstate F),
  cf = true \/ st_map s = [] -> (if cf then [] else st_map s) = [].
Proof. intros F cf s [-> | ->]; auto. destruct cf; auto. Qed.

Section MACHINE.
Context {F : Type} (A : falg F).
Variables vt lt : list (N * rule).
Notation lst := (@lstate F).

Definition compiled_as (s : lst) (e : expr) (p : nat * @clo F) : Prop :=
  fst p = eval_fuel e /\
  compile A (eval_fuel e) vt lt (st_syms s) (st_map s) (length (st_buf s)) e = Ok (snd p).

Lemma compile_in_ok : forall s e p, compile_in A vt lt s e = Ok p -> compiled_as s e p.
Proof.
  intros s e p H. unfold compile_in in H.
  destruct (compile A (eval_fuel e) vt lt (st_syms s) (st_map s) (length (st_buf s)) e) eqn:E; try discriminate.
  inversion H; subst. split; auto.
Qed.

(* successful push_results: the new results are the compiled outputs, nothing else changes *)
Lemma push_results_spec : forall outs s s',
  push_results A vt lt s outs = (s', Ok tt) ->
  exists ks, st_results s' = st_results s ++ ks /\ Forall2 (compiled_as s) outs ks /\
             st_fns s' = st_fns s /\ st_map s' = st_map s /\ st_buf s' = st_buf s /\ st_syms s' = st_syms s.
Proof.
  induction outs as [| e outs IH]; intros s s' H; cbn [push_results] in H.
  - inversion H; subst. exists []. rewrite app_nil_r. repeat split; auto.
  - destruct (compile_in A vt lt s e) as [p | | |] eqn:Ec; try (inversion H; fail).
    apply IH in H. destruct H as [ks [Hr [Hf [H1 [H2 [H3 H4]]]]]]. cbn in *.
    exists (p :: ks). rewrite Hr, <- app_assoc. repeat split; auto.
    constructor; [ apply compile_in_ok; auto | exact Hf ].
Qed.

(* a successful push_reduced is push_results on the reduced expressions it reads *)
Lemma push_reduced_results : forall reduced n i s s',
  push_reduced A vt lt s reduced n i = (s', Ok tt) ->
  push_results A vt lt s (firstn n (skipn i reduced)) = (s', Ok tt).
Proof.
  intros reduced. induction n as [| n IH]; intros i s s' H; cbn [push_reduced] in H; [ exact H | ].
  destruct (nth_error reduced i) as [e |] eqn:En; [ | inversion H ].
  rewrite (skipn_nth_error _ _ _ En). cbn [firstn push_results].
  destruct (compile_in A vt lt s e); try (inversion H; fail). apply IH. exact H.
Qed.

(* call on a state without CSE closures *)
Theorem call_no_cse : forall s v outs,
  st_fns s = [] -> st_map s = [] -> Forall2 (compiled_as s) outs (st_results s) ->
  snd (call A s v) = mapM (fun e => eval A (eval_fuel e) vt lt (st_syms s) v [] e) outs.
Proof.
  intros s v outs Hf Hm Hc. unfold call. rewrite Hf. cbn [run_fns]. cbn [snd].
  apply mapM_F2_run. eapply F2_impl; [ | exact Hc ]. intros e p [Hfu Hcp]. cbn beta.
  rewrite Hfu. rewrite Hm in Hcp.
  apply (compile_sound A vt lt (st_syms s) [] (length (st_buf s)) v (st_buf s) []); auto.
  intros x. reflexivity.
Qed.

(* after a successful init without CSE, call returns the values of the outputs at the inputs *)
Theorem call_sound : forall cf s xs es v,
  (cf = true \/ st_map s = []) ->
  snd (init A vt lt cf s xs es NoCse) = Ok tt ->
  snd (call A (fst (init A vt lt cf s xs es NoCse)) v)
  = mapM (fun e => eval A (eval_fuel e) vt lt xs v [] e) es.
Proof.
  intros cf s xs es v Hmap Hok. unfold init in *.
  rewrite (start_map_nil cf s Hmap) in *.
  destruct (push_results A vt lt (mk_st [] [] [] (st_buf s) xs) es) as [s' r] eqn:E. cbn [fst snd] in *. subst r.
  apply push_results_spec in E. destruct E as [ks [Hr [Hf [H1 [H2 [H3 H4]]]]]]. cbn in *.
  rewrite <- H4.
  apply call_no_cse; auto.
  (* compiled_as looks at the state only through symbols, map and buffer, which init left alone *)
  rewrite Hr. unfold compiled_as in *. rewrite H2, H3, H4. exact Hf.
Qed.

End MACHINE.

Section CSE.
Context {F : Type} (A : falg F).
Variables vt lt : list (N * rule).
Notation lst := (@lstate F).

(* the values of the replacement symbols, computed one after the other; each may use the earlier ones *)
Fixpoint eval_reps (xs : list expr) (v : list F) (reps : list (expr * expr)) (extra : list (expr * F))
  : res (list (expr * F)) :=
  match reps with
  | [] => Ok extra
  | (sym, ex) :: r =>
      do val <- eval A (eval_fuel ex) vt lt xs v extra ex; eval_reps xs v r (map_set extra sym val)
  end.

(* map and environment have the same keys in the same order; slot = value *)
Definition lockstep (cmap : list (expr * nat)) (extra : list (expr * F)) (buf : list F) : Prop :=
  Forall2 (fun p q => fst p = fst q /\ nth_error buf (snd p) = Some (snd q)) cmap extra.
Definition map_below (m : list (expr * nat)) (b : nat) : Prop := Forall (fun p => (snd p < b)%nat) m.

Lemma map_set_below : forall m b k v, map_below m b -> (v < b)%nat -> map_below (map_set m k v) b.
Proof.
  induction m as [| [k' v'] m IH]; intros b k v Hm Hv; cbn.
  - constructor; auto.
  - inversion Hm; subst. destruct (expr_eqb k' k); constructor; auto. apply IH; auto.
Qed.

Lemma map_below_mono : forall m b b', map_below m b -> (b <= b')%nat -> map_below m b'.
Proof.
  intros m b b' H Hle. unfold map_below in *. rewrite Forall_forall in *. intros p Hp. specialize (H p Hp). lia.
Qed.

Lemma lockstep_env_rel : forall cmap extra buf bufsz, lockstep cmap extra buf -> env_rel cmap bufsz buf extra.
Proof.
  induction 1 as [| [k idx] [k' val] cm ex [Hk Hn] Hrest IH]; intro s; cbn.
  - reflexivity.
  - cbn in Hk, Hn. subst k'. destruct (expr_eqb k s).
    + intros _. eauto.
    + apply IH.
Qed.

Lemma set_nth_length : forall i v (l : list F), length (set_nth i v l) = length l.
Proof. induction i; intros v [| a l]; cbn; auto. Qed.
Lemma set_nth_same : forall i v (l : list F), (i < length l)%nat -> nth_error (set_nth i v l) i = Some v.
Proof. induction i; intros v [| a l] H; cbn in *; try lia; auto. apply IHi. lia. Qed.
Lemma set_nth_other : forall i x v (l : list F), x <> i -> nth_error (set_nth i v l) x = nth_error l x.
Proof. induction i; intros x v [| a l] H; cbn; auto; destruct x; cbn; auto; try lia. Qed.

Lemma lockstep_keep : forall cmap extra buf j val,
  lockstep cmap extra buf -> map_below cmap j -> lockstep cmap extra (set_nth j val buf).
Proof.
  induction 1 as [| [k idx] [k' v'] cm ex [Hk Hn] Hrest IH]; intros Hb; constructor.
  - cbn in *. split; auto. inversion Hb; subst. cbn in *. rewrite set_nth_other; auto. lia.
  - apply IH. inversion Hb; auto.
Qed.

Lemma lockstep_set : forall cmap extra buf sym j val,
  lockstep cmap extra buf -> map_below cmap j -> (j < length buf)%nat ->
  lockstep (map_set cmap sym j) (map_set extra sym val) (set_nth j val buf).
Proof.
  induction 1 as [| [k idx] [k' v'] cm ex [Hk Hn] Hrest IH]; intros Hb Hj; cbn.
  - constructor; [ | constructor ]. cbn. split; auto. apply set_nth_same; auto.
  - cbn in Hk, Hn. subst k'. inversion Hb as [| ? ? Hidx Hb']; subst. cbn in Hidx.
    destruct (expr_eqb k sym).
    + constructor.
      * cbn. split; auto. apply set_nth_same; auto.
      * apply lockstep_keep; auto.
    + constructor.
      * cbn. split; auto. rewrite set_nth_other; auto. lia.
      * apply IH; auto.
Qed.

Lemma push_reps_shape : forall reps s s3, push_reps A vt lt s reps = (s3, Ok tt) ->
  exists ks, st_fns s3 = st_fns s ++ ks /\ st_results s3 = st_results s /\ st_buf s3 = st_buf s /\ st_syms s3 = st_syms s.
Proof.
  induction reps as [| [sy e] r IHr]; intros t t3 Ht; cbn [push_reps] in Ht.
  - inversion Ht; subst. exists []. rewrite app_nil_r. auto.
  - destruct (compile_in A vt lt t e) as [q | | |]; try (inversion Ht; fail).
    apply IHr in Ht. destruct Ht as [ks [H1 [H2 [H3 H4]]]]. cbn in *. exists (q :: ks). rewrite H1, <- app_assoc. auto.
Qed.

(* the closures of the replacements, run in order, compute eval_reps and fill the buffer *)
Lemma reps_run : forall xs v reps s s3 extra buf,
  push_reps A vt lt s reps = (s3, Ok tt) ->
  st_syms s = xs -> length buf = length (st_buf s) ->
  lockstep (st_map s) extra buf -> map_below (st_map s) (length (st_fns s)) ->
  (length (st_fns s) + length reps <= length buf)%nat ->
  exists ks, st_fns s3 = st_fns s ++ ks /\ st_results s3 = st_results s /\ st_buf s3 = st_buf s /\ st_syms s3 = st_syms s /\
    match eval_reps xs v reps extra with
    | Ok extra' => exists buf', run_fns A v buf (length (st_fns s)) ks = (buf', Ok tt) /\ length buf' = length buf /\
                                lockstep (st_map s3) extra' buf'
    | r => exists buf', run_fns A v buf (length (st_fns s)) ks = (buf', err_of r)
    end.
Proof.
  intros xs v. induction reps as [| [sym ex] reps IH]; intros s s3 extra buf Hp Hs Hl Hk Hb Hcap; cbn [push_reps] in Hp.
  - inversion Hp; subst. exists []. rewrite app_nil_r. cbn. repeat split; auto. exists buf. auto.
  - destruct (compile_in A vt lt s ex) as [[fu k] | | |] eqn:Ec; try (inversion Hp; fail).
    apply compile_in_ok in Ec. destruct Ec as [Hfu Hcp]. cbn in Hfu, Hcp. subst fu.
    set (s1 := mk_st (st_results s) (st_fns s ++ [(eval_fuel ex, k)])
                     (map_set (st_map s) sym (length (st_fns s))) (st_buf s) (st_syms s)) in *.
    cbn [length] in Hcap.
    assert (Hrun : run A (eval_fuel ex) v buf k = eval A (eval_fuel ex) vt lt xs v extra ex).
    { rewrite <- Hs. apply (compile_sound A vt lt (st_syms s) (st_map s) (length (st_buf s)) v buf extra); auto.
      apply lockstep_env_rel; auto. }
    cbn [eval_reps].
    destruct (eval A (eval_fuel ex) vt lt xs v extra ex) as [val | a b | | c] eqn:Ev; cbn [bind].
    2-4: (* an error of the replacement is the error of the call; the remaining closures exist *)
      apply push_reps_shape in Hp; destruct Hp as [ks [H1 [H2 [H3 H4]]]]; cbn in H1, H2, H3, H4;
      exists ((eval_fuel ex, k) :: ks); rewrite H1, <- app_assoc; repeat split; auto;
      cbn [run_fns]; rewrite Hrun; eauto.
    (* the replacement evaluates: continue with the updated buffer and environment *)
    assert (Hi : (length (st_fns s) < length buf)%nat) by lia.
    specialize (IH s1 s3 (map_set extra sym val) (set_nth (length (st_fns s)) val buf) Hp).
    assert (Hlen1 : length (st_fns s1) = S (length (st_fns s))) by (cbn; rewrite app_length; cbn; lia).
    destruct IH as [ks [Hf3 [Hr3 [Hb3 [Hs3 Hm]]]]]; cbn; auto.
    + rewrite set_nth_length; auto.
    + apply lockstep_set; auto.
    + rewrite app_length. cbn. apply map_set_below; [ | lia ]. apply (map_below_mono _ _ _ Hb). lia.
    + rewrite set_nth_length, app_length. cbn. lia.
    + exists ((eval_fuel ex, k) :: ks). cbn in Hf3. rewrite <- app_assoc in Hf3. cbn in Hf3.
      repeat split; auto. cbn [run_fns]. rewrite Hrun.
      apply Nat.ltb_lt in Hi. rewrite Hi. rewrite Hlen1 in Hm.
      destruct (eval_reps xs v reps (map_set extra sym val)) as [extra' | a b | | c]; auto.
      destruct Hm as [buf' [H1 [H2 H3]]]. exists buf'. rewrite set_nth_length in H2. auto.
Qed.

Lemma resize_length : forall n (b : list F), length (resize A n b) = n.
Proof.
  intros n b. unfold resize. rewrite app_length, firstn_length, repeat_length. lia.
Qed.

(* after a successful init WITH CSE, call computes the replacements in order and then the reduced
   expressions in the environment of their values *)
Theorem cse_call_spec : forall cf s xs es reps reduced v,
  (cf = true \/ st_map s = []) ->
  snd (init A vt lt cf s xs es (CseOk reps reduced)) = Ok tt ->
  snd (call A (fst (init A vt lt cf s xs es (CseOk reps reduced))) v)
  = (do extra <- eval_reps xs v reps [];
     mapM (fun e => eval A (eval_fuel e) vt lt xs v extra e) (firstn (length es) reduced)).
Proof.
  intros cf s xs es reps reduced v Hmap Hok. unfold init in *.
  rewrite (start_map_nil cf s Hmap) in *. cbn [st_map st_buf] in *.
  set (s2 := mk_st [] [] [] (resize A (length reps) (st_buf s)) xs) in *.
  destruct (push_reps A vt lt s2 reps) as [s3 r3] eqn:E3.
  destruct r3 as [[] | | |]; try (cbn in Hok; discriminate Hok).
  destruct (push_reduced A vt lt s3 reduced (length es) 0) as [s4 r4] eqn:E4.
  destruct r4 as [[] | | |]; try (cbn in Hok; discriminate Hok).
  cbn [fst snd] in *.
  destruct (reps_run xs v reps s2 s3 [] (st_buf s2) E3 eq_refl eq_refl) as [ks [Hf3 [Hr3 [Hb3 [Hs3 Hrun]]]]].
  { constructor. }
  { constructor. }
  { cbn. rewrite resize_length. lia. }
  apply push_reduced_results, push_results_spec in E4. destruct E4 as [kr [Hr4 [Hc4 [Hf4 [Hm4 [Hb4 Hs4]]]]]].
  cbn in Hf3, Hr3, Hb3, Hs3. cbn [skipn] in Hc4.
  unfold call. cbn [st_fns st_buf st_results].
  rewrite Hf4, Hf3, Hb4, Hb3. cbn [length] in Hrun.
  destruct (eval_reps xs v reps []) as [extra' | a b | | c]; cbn [bind].
  2-4: (* an error of the replacements is the error of the call *)
    destruct Hrun as [buf' H1]; cbn in H1; rewrite H1; reflexivity.
  (* the reduced expressions are evaluated in the buffer the replacements filled *)
  destruct Hrun as [buf' [H1 [H2 H3]]]. cbn in H1. rewrite H1. cbn [fst snd].
  rewrite Hr4, Hr3. cbn [app].
  apply mapM_F2_run.
  eapply F2_impl; [ | exact Hc4 ]. intros e p [Hfu Hcp]. cbn beta. rewrite Hfu.
  rewrite Hs3 in Hcp. cbn in Hcp.
  apply (compile_sound A vt lt xs (st_map s3) (length (st_buf s3)) v buf' extra'); auto.
  apply lockstep_env_rel; auto.
Qed.

(* faithfulness of the CSE result at one input vector (what C37 establishes for cse()):
   evaluating the replacements in order and then the reduced expressions gives the values of
   the original outputs *)
Definition cse_faithful_at (xs : list expr) (v : list F) (es : list expr) (reps : list (expr * expr))
           (reduced : list expr) : Prop :=
  (do extra <- eval_reps xs v reps [];
   mapM (fun e => eval A (eval_fuel e) vt lt xs v extra e) (firstn (length es) reduced))
  = mapM (fun e => eval A (eval_fuel e) vt lt xs v [] e) es.

(* enabling CSE does not change the results *)
Theorem cse_transparent : forall cf s s' xs es reps reduced v,
  (cf = true \/ st_map s = []) -> (cf = true \/ st_map s' = []) ->
  snd (init A vt lt cf s xs es (CseOk reps reduced)) = Ok tt ->
  snd (init A vt lt cf s' xs es NoCse) = Ok tt ->
  cse_faithful_at xs v es reps reduced ->
  snd (call A (fst (init A vt lt cf s xs es (CseOk reps reduced))) v)
  = snd (call A (fst (init A vt lt cf s' xs es NoCse)) v).
Proof.
  intros cf s s' xs es reps reduced v H1 H2 Ho1 Ho2 Hf.
  rewrite (cse_call_spec cf s xs es reps reduced v H1 Ho1).
  rewrite (call_sound A vt lt cf s' xs es v H2 Ho2). exact Hf.
Qed.

End CSE.
