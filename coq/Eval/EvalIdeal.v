(* C12/C13 shared -- the IDEAL interpretation of the formula language: real numbers and the real
   functions of the Coq standard library (Reals).  Functions without a library definition
   (Gamma, log Gamma, erf, erfc) are parameters of the section: every theorem holds for any
   interpretation of them.  Definitions and elementary lemmas only. *)
From Coq Require Import Reals Lra Lia ZArith NArith List Bool.
From Flocq Require Import Core.Raux.
From SE Require Import Eval.EvalModel.
Import ListNotations.
Local Open Scope R_scope.

(* inverse hyperbolic functions missing from the standard library *)
Definition acosh_R (x : R) : R := ln (x + sqrt (x * x - 1)).
Definition atanh_R (x : R) : R := / 2 * ln ((1 + x) / (1 - x)).

(* the principal value of the angle of the point (x, y) *)
Definition atan2_R (y x : R) : R :=
  if Rlt_dec 0 x then atan (y / x)
  else if Rlt_dec x 0 then (if Rle_dec 0 y then atan (y / x) + PI else atan (y / x) - PI)
  else if Rlt_dec 0 y then PI / 2 else if Rlt_dec y 0 then - (PI / 2) else 0.

Definition b2r (b : bool) : R := if b then 1 else 0.
Definition r_true (x : R) : bool := if Req_EM_T x 0 then false else true.
Definition r_eqb (x y : R) : bool := if Req_EM_T x y then true else false.
Definition r_ltb (x y : R) : bool := if Rlt_dec x y then true else false.
Definition r_leb (x y : R) : bool := if Rle_dec x y then true else false.

Section IDEAL.
(* special functions without a definition in Reals *)
Variables gamma_R lgamma_R erf_R erfc_R : R -> R.
(* the value given to the non-real literals and to decimal literals: not used by the theorems
   about formulas (those contain only 0, 1, -1) *)
Variable lit_other : lit -> R.

Definition R_lit (l : lit) : R :=
  match l with
  | L0 => 0 | L1 => 1 | LM1 => -1
  | _ => lit_other l
  end.

Definition R_un (f : ufun) (x : R) : R :=
  match f with
  | UExp => exp x | ULog => ln x | USin => sin x | UCos => cos x | UTan => tan x
  | UAsin => asin x | UAcos => acos x | UAtan => atan x
  | USinh => sinh x | UCosh => cosh x | UTanh => tanh x
  | UAsinh => arcsinh x | UAcosh => acosh_R x | UAtanh => atanh_R x
  | UAbs => Rabs x
  | UGamma => gamma_R x | ULgamma => lgamma_R x | UErf => erf_R x | UErfc => erfc_R x
  | UFloor => IZR (Zfloor x) | UCeil => IZR (Zceil x) | UTrunc => IZR (Ztrunc x)
  | UNotB => b2r (negb (r_true x))
  | UIsNan => 0
  end.

Definition R_bin (f : bfun) (x y : R) : R :=
  match f with
  | BAdd => x + y | BMul => x * y | BDiv => x / y
  | BPow => Rpower x y            (* meaningful for x > 0 *)
  | BAtan2 => atan2_R x y
  | BMax => Rmax x y | BMin => Rmin x y
  | BEq => b2r (r_eqb x y) | BNe => b2r (negb (r_eqb x y))
  | BLe => b2r (r_leb x y) | BLt => b2r (r_ltb x y)
  | BAndB => b2r (r_true x && r_true y) | BOrB => b2r (r_true x || r_true y)
  | BXorB => b2r (xorb (r_true x) (r_true y))
  end.

Definition R_alg : falg R :=
  mk_falg R IZR (fun n d => IZR n / IZR (Zpos d)) (fun b => lit_other (LBits b)) R_lit
          (fun f x => Some (R_un f x)) (fun f x y => Some (R_bin f x y))
          r_true (fun x => r_eqb x 1).

(* the ideal value of a formula term *)
Fixpoint interp_R (t : fterm) (args : list R) : option R :=
  match t with
  | FArg i => nth_error args i
  | FLit l => Some (R_lit l)
  | FUn f a => option_map (R_un f) (interp_R a args)
  | FBin f a b =>
      match interp_R a args, interp_R b args with
      | Some x, Some y => Some (R_bin f x y)
      | _, _ => None
      end
  | FIf c a b =>
      match interp_R c args with
      | Some v => if r_true v then interp_R a args else interp_R b args
      | None => None
      end
  end.

Lemma interp_R_eq : forall t args, interp R_alg t args = interp_R t args.
Proof.
  (* the same recursion; the operations of R_alg never fail *)
  induction t as [i | l | f a IHa | f a IHa b IHb | c IHc a IHa b IHb]; intro args; cbn [interp interp_R].
  - reflexivity.
  - reflexivity.
  - rewrite IHa. destruct (interp_R a args); reflexivity.
  - rewrite IHa, IHb. destruct (interp_R a args), (interp_R b args); reflexivity.
  - rewrite IHc, IHa, IHb. reflexivity.
Qed.

End IDEAL.

Lemma exp_neg_inv : forall x, exp (- x) = / exp x.
Proof. intro x. apply exp_Ropp. Qed.

Lemma cosh_pos : forall x, 0 < cosh x.
Proof.
  intro x. unfold cosh. pose proof (exp_pos x). pose proof (exp_pos (- x)). lra.
Qed.

Lemma sinh_nonzero : forall x, x <> 0 -> sinh x <> 0.
Proof.
  intros x Hx H. apply Hx.
  destruct (Rtotal_order x 0) as [Hlt | [Heq | Hgt]]; auto.
  - pose proof (sinh_lt x 0 Hlt) as H1. rewrite sinh_0 in H1. lra.
  - pose proof (sinh_lt 0 x Hgt) as H1. rewrite sinh_0 in H1. lra.
Qed.

Lemma tanh_nonzero : forall x, x <> 0 -> tanh x <> 0.
Proof.
  intros x Hx. unfold tanh. intro H.
  apply (sinh_nonzero x Hx).
  pose proof (cosh_pos x).
  apply Rmult_integral in H. destruct H as [H | H]; auto.
  exfalso. apply (Rinv_neq_0_compat (cosh x)); lra.
Qed.

Lemma acosh_arg_pos : forall x, 1 <= x -> 1 <= x + sqrt (x * x - 1).
Proof.
  intros x Hx. pose proof (sqrt_pos (x * x - 1)). lra.
Qed.

Lemma cosh_acosh : forall x, 1 <= x -> cosh (acosh_R x) = x.
Proof.
  intros x Hx. unfold cosh, acosh_R.
  pose proof (acosh_arg_pos x Hx) as Hp.
  rewrite exp_Ropp, exp_ln by lra.
  assert (Hs : sqrt (x * x - 1) * sqrt (x * x - 1) = x * x - 1).
  { apply sqrt_sqrt. nra. }
  set (s := sqrt (x * x - 1)) in *.
  assert (Hinv : / (x + s) = x - s).
  { apply Rmult_eq_reg_l with (x + s); [ | lra ].
    rewrite Rinv_r by lra. nra. }
  rewrite Hinv. lra.
Qed.

Lemma acosh_nonneg : forall x, 1 <= x -> 0 <= acosh_R x.
Proof.
  intros x Hx. unfold acosh_R. pose proof (acosh_arg_pos x Hx) as Hp.
  rewrite <- ln_1.
  destruct (Req_dec (x + sqrt (x * x - 1)) 1) as [He | Hne].
  - rewrite He. lra.
  - left. apply ln_increasing; lra.
Qed.

Lemma tanh_atanh : forall x, -1 < x < 1 -> tanh (atanh_R x) = x.
Proof.
  intros x [H1 H2]. unfold tanh, sinh, cosh, atanh_R.
  assert (Hq : 0 < (1 + x) / (1 - x)).
  { apply Rdiv_lt_0_compat; lra. }
  set (q := (1 + x) / (1 - x)) in *.
  set (y := / 2 * ln q).
  assert (He2 : exp y * exp y = q).
  { rewrite <- exp_plus. unfold y. replace (/ 2 * ln q + / 2 * ln q) with (ln q) by lra.
    apply exp_ln; auto. }
  pose proof (exp_pos y) as Hy.
  rewrite exp_Ropp.
  set (e := exp y) in *.
  assert (Hx : x = (q - 1) / (q + 1)).
  { unfold q. field. lra. }
  rewrite Hx. rewrite <- He2.
  field. split; [ | lra ].
  nra.
Qed.

Lemma atanh_0_iff : forall x, -1 < x < 1 -> x <> 0 -> atanh_R x <> 0.
Proof.
  intros x Hx Hne H. apply Hne.
  rewrite <- (tanh_atanh x Hx), H. unfold tanh. rewrite sinh_0. lra.
Qed.

(* E ** x = exp x: the E case of Pow *)
Lemma Rpower_exp1 : forall x, Rpower (exp 1) x = exp x.
Proof.
  intro x. unfold Rpower. rewrite ln_exp. f_equal. lra.
Qed.

Lemma atan2_0_m1 : atan2_R 0 (-1) = PI.
Proof.
  unfold atan2_R.
  destruct (Rlt_dec 0 (-1)); [ lra | ].
  destruct (Rlt_dec (-1) 0); [ | lra ].
  destruct (Rle_dec 0 0); [ | lra ].
  replace (0 / -1) with 0 by (field; lra). rewrite atan_0. lra.
Qed.
