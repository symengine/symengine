(* C43 -- floor / ceiling / truncating division, divisibility, lowest set bit *)
From SE Require Import Base.Prelude C43.MpModel C43.MpSpec.
From Coq Require Import Lia ZifyBool Znumtheory.
Local Open Scope Z_scope.

Lemma quot_rem_facts : forall a b, b <> 0 ->
  a = b * Z.quot a b + Z.rem a b /\ Z.abs (Z.rem a b) < Z.abs b /\
  (0 <= a -> 0 <= Z.rem a b) /\ (a <= 0 -> Z.rem a b <= 0).
Proof.
  intros a b Hb. split; [apply Z.quot_rem'|]. split; [apply Z.rem_bound_abs; auto|].
  assert (Hs := Z.rem_sign_nz a b Hb).
  split; intros Ha; destruct (Z.eq_dec (Z.rem a b) 0) as [E|E]; try lia; specialize (Hs E); lia.
Qed.

Lemma floor_div_mod : forall a b, b <> 0 -> floor_div_spec a b (a / b) (a mod b).
Proof.
  intros a b Hb. split; [rewrite Z.mul_comm; apply Z.div_mod; auto | apply Z.mod_bound_or; auto].
Qed.

Lemma floor_unique : forall a b q r, b <> 0 -> a = b * q + r -> (0 <= r < b \/ b < r <= 0) ->
  q = a / b /\ r = a mod b.
Proof.
  intros a b q r Hb He Hr. eapply (Z.div_mod_unique b); eauto using Z.mod_bound_or.
  rewrite <- He. apply Z.div_mod; auto.
Qed.

Lemma mp_fdiv_qr_zero : forall a, mp_fdiv_qr a 0 = ErrExn EXN_STD.
Proof. reflexivity. Qed.

(* mp_fdiv_qr is Coq's floor division (= mpz_fdiv_qr) for every a and every b <> 0 *)
Theorem fdiv_qr_spec : forall a b, b <> 0 -> mp_fdiv_qr a b = Ok (a / b, a mod b).
Proof.
  intros a b Hb. unfold mp_fdiv_qr, bdivide_qr.
  destruct (b =? 0) eqn:E0; [lia|]. cbn [bind fst snd].
  destruct (quot_rem_facts a b Hb) as (H1 & H2 & H3 & H4).
  set (q0 := Z.quot a b) in *. set (r0 := Z.rem a b) in *. clearbody q0 r0.
  match goal with |- Ok (?q, ?r) = _ => destruct (floor_unique a b q r Hb) as [Hq Hr] end.
  - destruct (((a <? 0) && (0 <? b) || (0 <? a) && (b <? 0)) && negb (r0 =? 0)) eqn:E;
    destruct ((0 <? b) && (r0 <? 0) || (b <? 0) && (0 <? r0)) eqn:E'; lia.
  - destruct ((0 <? b) && (r0 <? 0) || (b <? 0) && (0 <? r0)) eqn:E'; lia.
  - rewrite <- Hq, <- Hr. reflexivity.
Qed.

Theorem fdiv_qr_floor : forall a b q r, mp_fdiv_qr a b = Ok (q, r) -> floor_div_spec a b q r.
Proof.
  intros a b q r H. destruct (Z.eq_dec b 0) as [->|Hb]; [discriminate|].
  rewrite fdiv_qr_spec in H by auto. inversion H; subst. apply floor_div_mod; auto.
Qed.

Theorem fdiv_q_spec : forall a b, b <> 0 -> mp_fdiv_q a b = Ok (a / b).
Proof. intros. unfold mp_fdiv_q. rewrite fdiv_qr_spec by auto. reflexivity. Qed.
Theorem fdiv_r_spec : forall a b, b <> 0 -> mp_fdiv_r a b = Ok (a mod b).
Proof. intros. unfold mp_fdiv_r. rewrite fdiv_qr_spec by auto. reflexivity. Qed.

(* mp_cdiv_qr is ceiling division (= mpz_cdiv_qr): q = -floor(-a / b), r = a - q*b *)
Theorem cdiv_qr_spec : forall a b, b <> 0 ->
  mp_cdiv_qr a b = Ok (- ((- a) / b), a + ((- a) / b) * b).
Proof.
  intros a b Hb. unfold mp_cdiv_qr, bdivide_qr.
  destruct (b =? 0) eqn:E0; [lia|]. cbn [bind fst snd].
  destruct (quot_rem_facts a b Hb) as (H1 & H2 & H3 & H4).
  set (q0 := Z.quot a b) in *. set (r0 := Z.rem a b) in *. clearbody q0 r0.
  match goal with |- Ok (?q, ?r) = _ => destruct (floor_unique (- a) b (- q) (- r) Hb) as [Hq Hr] end.
  - destruct (((a <? 0) && (b <? 0) || (0 <? a) && (0 <? b)) && negb (r0 =? 0)) eqn:E;
    destruct ((0 <? b) && (0 <? r0) || (b <? 0) && (r0 <? 0)) eqn:E'; lia.
  - destruct ((0 <? b) && (0 <? r0) || (b <? 0) && (r0 <? 0)) eqn:E'; lia.
  - assert (Hdm := Z.div_mod (- a) b Hb). f_equal. f_equal; lia.
Qed.

Theorem cdiv_qr_ceiling : forall a b q r, mp_cdiv_qr a b = Ok (q, r) -> ceil_div_spec a b q r.
Proof.
  intros a b q r H. destruct (Z.eq_dec b 0) as [->|Hb]; [discriminate|].
  rewrite cdiv_qr_spec in H by auto. inversion H; subst.
  destruct (floor_div_mod (- a) b Hb) as [E R]. split; lia.
Qed.

(* the two specifications determine quotient and remainder *)
Lemma floor_div_spec_unique : forall a b q r q' r',
  floor_div_spec a b q r -> floor_div_spec a b q' r' -> q = q' /\ r = r'.
Proof.
  unfold floor_div_spec. intros a b q r q' r' [H1 H2] [H3 H4].
  assert (Hb : b <> 0) by lia.
  destruct (floor_unique a b q r Hb) as [-> ->]; [lia|auto|].
  destruct (floor_unique a b q' r' Hb) as [-> ->]; [lia|auto|]. auto.
Qed.
Lemma ceil_div_spec_unique : forall a b q r q' r',
  ceil_div_spec a b q r -> ceil_div_spec a b q' r' -> q = q' /\ r = r'.
Proof.
  unfold ceil_div_spec. intros a b q r q' r' [H1 H2] [H3 H4].
  assert (Hb : b <> 0) by lia.
  destruct (floor_unique (- a) b (- q) (- r) Hb) as [E1 E2]; [lia|lia|].
  destruct (floor_unique (- a) b (- q') (- r') Hb) as [E3 E4]; [lia|lia|]. lia.
Qed.

Theorem cdiv_q_spec : forall a b, b <> 0 -> mp_cdiv_q a b = Ok (- ((- a) / b)).
Proof. intros. unfold mp_cdiv_q. rewrite cdiv_qr_spec by auto. reflexivity. Qed.

Theorem tdiv_qr_spec : forall a b q r, mp_tdiv_qr a b = Ok (q, r) -> trunc_div_spec a b q r.
Proof.
  unfold mp_tdiv_qr, bdivide_qr, trunc_div_spec. intros a b q r H.
  destruct (b =? 0) eqn:E; [discriminate|]. inversion H; subst.
  destruct (quot_rem_facts a b ltac:(lia)) as (H1 & H2 & H3 & H4). lia.
Qed.

Theorem divisible_spec : forall a b, mp_divisible_p a b = true <-> (b | a).
Proof.
  intros. unfold mp_divisible_p. destruct (b =? 0) eqn:E.
  - assert (b = 0) by lia. subst. split; intros H.
    + assert (a = 0) by lia. subst. apply Z.divide_0_r.
    + destruct H as [k Hk]. lia.
  - split; intros H.
    + exists (Z.quot a b). assert (Hq := Z.quot_rem' a b). lia.
    + destruct H as [k Hk]. subst. rewrite Z.rem_mul by lia. reflexivity.
Qed.

(* mp_scan1 = index of the lowest set bit (mpz_scan1(i, 0)), also for negative numbers *)
Lemma ctz_spec : forall p, (2 ^ Z.of_N (ctz p) | Zpos p) /\ ~ (2 ^ (Z.of_N (ctz p) + 1) | Zpos p).
Proof.
  induction p; cbn [ctz].
  - split; [apply Z.divide_1_l|]. cbn. intros [k Hk]. lia.
  - destruct IHp as [[k Hk] Hn]. rewrite N2Z.inj_succ.
    split.
    + exists k. rewrite Z.pow_succ_r by lia. lia.
    + intros [j Hj]. apply Hn. exists j.
      rewrite Z.pow_add_r in * by lia. rewrite Z.pow_succ_r in Hj by lia. lia.
  - split; [apply Z.divide_1_l|]. cbn. intros [k Hk]. lia.
Qed.

Theorem scan1_spec : forall i, i <> 0 -> lowest_bit_spec i (mp_scan1 i).
Proof.
  intros i Hi. unfold lowest_bit_spec. destruct i; [lia| |]; cbn [mp_scan1].
  - apply ctz_spec.
  - destruct (ctz_spec p) as [H1 H2]. split.
    + change (Z.neg p) with (- Z.pos p). apply Z.divide_opp_r; auto.
    + intros H. apply H2. change (Z.neg p) with (- Z.pos p) in H. apply Z.divide_opp_r in H.
      rewrite Z.opp_involutive in H. exact H.
Qed.
