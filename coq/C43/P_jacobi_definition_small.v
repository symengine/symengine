From SE Require Import Base.Prelude C43.MpModel C43.MpSpec C43.MpJacobi.
From Coq Require Import Znumtheory.
Local Open Scope Z_scope.

Theorem C43_jacobi_definition_small :
  forall n a, 0 < n < 100 -> n mod 2 = 1 -> -100 <= a <= 200 ->
  mp_jacobi a n = Ok (jacobi_def a n).
Proof. intros n a Hn Ho _. exact (jacobi_definition_small n a Hn Ho). Qed.
Print Assumptions C43_jacobi_definition_small.
