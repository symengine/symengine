(* Generic facts about the lazily fuelled loop combinator iterP / run_loop of MpModel.v:
   it is the nat-fuelled iteration, invariants are preserved, a decreasing measure bounds the fuel. *)
From SE Require Import Base.Prelude C43.MpModel.
From Coq Require Import Lia.

Section LoopFacts.
  Context {S R : Type} (step : S -> S + R).

  Fixpoint iterN (n : nat) (s : S) : S + R :=
    match n with
    | O => inl s
    | Datatypes.S n' => match step s with inl s' => iterN n' s' | inr r => inr r end
    end.

  Lemma iterN_add : forall a b s,
    iterN (a + b) s = match iterN a s with inl s' => iterN b s' | inr r => inr r end.
  Proof.
    induction a; intros; cbn [iterN Nat.add]; auto.
    destruct (step s); auto.
  Qed.

  Lemma iterN_1 : forall s, iterN 1 s = step s.
  Proof. intros; cbn. destruct (step s); auto. Qed.

  Lemma iterP_iterN : forall p s, iterP step p s = iterN (Pos.to_nat p) s.
  Proof.
    induction p; intros; cbn [iterP].
    - rewrite Pos2Nat.inj_xI.
      replace (Datatypes.S (2 * Pos.to_nat p)) with (Pos.to_nat p + (Pos.to_nat p + 1))%nat by lia.
      rewrite iterN_add, IHp. destruct (iterN (Pos.to_nat p) s) as [s1|r1]; [|reflexivity].
      rewrite iterN_add, IHp. destruct (iterN (Pos.to_nat p) s1) as [s2|r2]; [|reflexivity].
      rewrite iterN_1. reflexivity.
    - rewrite Pos2Nat.inj_xO.
      replace (2 * Pos.to_nat p)%nat with (Pos.to_nat p + Pos.to_nat p)%nat by lia.
      rewrite iterN_add, IHp. destruct (iterN (Pos.to_nat p) s) as [s1|r1]; [|reflexivity].
      apply IHp.
    - rewrite Pos2Nat.inj_1. rewrite iterN_1. reflexivity.
  Qed.

  (* an invariant kept by every continuing step holds in the state from which the loop exits *)
  Lemma iterN_exit : forall (Inv : S -> Prop),
    (forall s s', Inv s -> step s = inl s' -> Inv s') ->
    forall n s r, Inv s -> iterN n s = inr r -> exists sf, Inv sf /\ step sf = inr r.
  Proof.
    intros Inv Hpres. induction n; intros s r Hs H; cbn [iterN] in H; try discriminate.
    destruct (step s) eqn:E.
    - eapply IHn; [eapply Hpres; eauto | exact H].
    - inversion H; subst. eauto.
  Qed.

  (* a measure that strictly decreases along continuing steps bounds the number of turns *)
  Lemma iterN_terminates : forall (Inv : S -> Prop) (mu : S -> nat),
    (forall s s', Inv s -> step s = inl s' -> Inv s' /\ (mu s' < mu s)%nat) ->
    forall n s, Inv s -> (mu s < n)%nat -> exists r, iterN n s = inr r.
  Proof.
    intros Inv mu Hdec. induction n; intros s Hs Hlt; [lia|].
    cbn [iterN]. destruct (step s) eqn:E; eauto.
    destruct (Hdec _ _ Hs E) as [Hi Hm]. apply IHn; auto. lia.
  Qed.

  Lemma run_loop_exit : forall (Inv : S -> Prop),
    (forall s s', Inv s -> step s = inl s' -> Inv s') ->
    forall fuel s r, Inv s -> run_loop step fuel s = Ok r -> exists sf, Inv sf /\ step sf = inr r.
  Proof.
    intros Inv Hp fuel s r Hs H. unfold run_loop in H. rewrite iterP_iterN in H.
    destruct (iterN (Pos.to_nat fuel) s) eqn:E; try discriminate. inversion H; subst.
    eapply iterN_exit; eauto.
  Qed.

  (* a loop whose fuel exceeds the measure runs to its exit, where the invariant still holds *)
  Lemma run_loop_total : forall (Inv : S -> Prop) (mu : S -> nat),
    (forall s s', Inv s -> step s = inl s' -> Inv s' /\ (mu s' < mu s)%nat) ->
    forall fuel s, Inv s -> (mu s < Pos.to_nat fuel)%nat ->
    exists r sf, run_loop step fuel s = Ok r /\ Inv sf /\ step sf = inr r.
  Proof.
    intros Inv mu Hd fuel s Hs Hlt. unfold run_loop. rewrite iterP_iterN.
    destruct (iterN_terminates Inv mu Hd _ _ Hs Hlt) as [r Hr]. rewrite Hr.
    destruct (iterN_exit Inv (fun a b Ha Hb => proj1 (Hd a b Ha Hb)) _ _ _ Hs Hr) as [sf H]. eauto.
  Qed.
End LoopFacts.
