(* C43 -- binomial coefficients (mp_bin_ui): the multiply-then-divide loop is exact at every turn and equals
   mpz_bin_ui, including negative n (bin(-n,k) = (-1)^k bin(n+k-1,k)) *)
From SE Require Import Base.Prelude C43.MpModel C43.MpSpec.
From Coq Require Import Lia ZifyBool ZifyNat Arith.
Local Open Scope Z_scope.

Lemma binom_0_S : forall k, binom 0 (S k) = 0.
Proof. reflexivity. Qed.
Lemma binom_n_0 : forall n, binom n 0 = 1.
Proof. destruct n; reflexivity. Qed.
Lemma binom_SS : forall n k, binom (S n) (S k) = binom n k + binom n (S k).
Proof. reflexivity. Qed.
Lemma binom_n_1 : forall n, binom n 1 = Z.of_nat n.
Proof.
  induction n; [reflexivity|]. rewrite binom_SS, IHn, binom_n_0. lia.
Qed.

(* (k+1) C(n+1,k+1) = (n+1) C(n,k) *)
Lemma binom_absorb : forall n k,
  Z.of_nat (S k) * binom (S n) (S k) = Z.of_nat (S n) * binom n k.
Proof.
  induction n; intros k.
  - destruct k; [reflexivity|]. rewrite binom_SS, !binom_0_S. lia.
  - destruct k.
    + rewrite binom_n_1, binom_n_0. lia.
    + rewrite (binom_SS (S n) (S k)).
      assert (H1 := IHn k). assert (H2 := IHn (S k)).
      rewrite (binom_SS n k) at 1.
      set (A := binom (S n) (S k)) in *. set (B := binom (S n) (S (S k))) in *.
      set (C := binom n k) in *. set (D := binom n (S k)) in *.
      assert (HA : A = C + D) by reflexivity.
      nia.
Qed.

(* (k+1) C(n,k+1) = (n-k) C(n,k): absorption with Pascal's rule for C(n+1,k+1) *)
Lemma binom_next : forall n k,
  Z.of_nat (S k) * binom n (S k) = (Z.of_nat n - Z.of_nat k) * binom n k.
Proof. intros n k. assert (H := binom_absorb n k). rewrite binom_SS in H. lia. Qed.

(* the absorption identity for mpz_bin_ui's extension to all integers *)
Lemma gmp_bin_absorb : forall m i,
  Z.of_nat (S i) * gmp_bin (m + 1) (S i) = (m + 1) * gmp_bin m i.
Proof.
  intros m i. unfold gmp_bin.
  destruct (0 <=? m) eqn:E1.
  - destruct (0 <=? m + 1) eqn:E2; [|lia].
    replace (Z.to_nat (m + 1)) with (S (Z.to_nat m)) by lia.
    rewrite binom_absorb. replace (Z.of_nat (S (Z.to_nat m))) with (m + 1) by lia. reflexivity.
  - destruct (0 <=? m + 1) eqn:E2.
    + assert (m = -1) by lia. subst. cbn. lia.
    + replace (Z.to_nat (- (m + 1)) + S i - 1)%nat with (Z.to_nat (- m) + i - 1)%nat by lia.
      set (N := (Z.to_nat (- m) + i - 1)%nat).
      assert (HN : Z.of_nat N - Z.of_nat i = - (m + 1)) by lia.
      assert (H := binom_next N i). rewrite HN in H.
      rewrite Nat.even_succ, <- Nat.negb_even.
      destruct (Nat.even i); cbn [negb]; nia.
Qed.

Lemma bin_loop_spec : forall cnt x j,
  bin_loop cnt x (Z.of_nat (S j)) (gmp_bin (x + Z.of_nat j) j)
  = gmp_bin (x + Z.of_nat (j + cnt)) (j + cnt).
Proof.
  induction cnt; intros x j; cbn [bin_loop].
  - rewrite Nat.add_0_r. reflexivity.
  - assert (Ha := gmp_bin_absorb (x + Z.of_nat j) j).
    replace (x + Z.of_nat j + 1) with (x + Z.of_nat (S j)) in Ha by lia.
    replace (gmp_bin (x + Z.of_nat j) j * (x + Z.of_nat (S j)))
      with (gmp_bin (x + Z.of_nat (S j)) (S j) * Z.of_nat (S j)) by lia.
    rewrite Z.quot_mul by lia.
    replace (Z.of_nat (S j) + 1) with (Z.of_nat (S (S j))) by lia.
    rewrite IHcnt. f_equal; [f_equal|]; lia.
Qed.

(* mp_bin_ui = mpz_bin_ui for every integer n and every k *)
Theorem bin_spec : forall n r, mp_bin_ui n r = gmp_bin n (N.to_nat r).
Proof.
  intros n r. unfold mp_bin_ui.
  assert (H := bin_loop_spec (N.to_nat r) (n - Z.of_N r) 0).
  change (Z.of_nat 1) with 1 in H. change (Z.of_nat 0) with 0 in H. rewrite Z.add_0_r in H.
  change (0 + N.to_nat r)%nat with (N.to_nat r) in H.
  replace (gmp_bin (n - Z.of_N r) 0) with 1 in H.
  - rewrite H. f_equal. lia.
  - unfold gmp_bin. destruct (0 <=? n - Z.of_N r); rewrite binom_n_0; reflexivity.
Qed.

(* for 0 <= k <= n it is the schoolbook binomial coefficient n! / (k! (n-k)!) *)
Lemma binom_fact : forall n k, (k <= n)%nat ->
  binom n k * Z.of_nat (fact k) * Z.of_nat (fact (n - k)) = Z.of_nat (fact n).
Proof.
  induction n; intros k Hk.
  - assert (k = 0)%nat by lia. subst. reflexivity.
  - destruct k.
    + rewrite binom_n_0. cbn [fact Nat.sub]. lia.
    + assert (Ha := binom_absorb n k). assert (IH := IHn k ltac:(lia)).
      replace (S n - S k)%nat with (n - k)%nat by lia.
      change (fact (S k)) with (S k * fact k)%nat. change (fact (S n)) with (S n * fact n)%nat.
      rewrite !Nat2Z.inj_mul.
      transitivity ((Z.of_nat (S k) * binom (S n) (S k)) * Z.of_nat (fact k) * Z.of_nat (fact (n - k))); [ring|].
      rewrite Ha, <- IH. ring.
Qed.
