(* C43 -- extended Euclid (mp_gcdext): termination, gcd, Bezout identity; modular inverse (mp_invert) *)
From SE Require Import Base.Prelude C43.MpModel C43.MpSpec C43.MpLoop C43.MpDiv.
From Coq Require Import Lia ZifyBool Znumtheory.
Local Open Scope Z_scope.

Section Euclid.
  Variables a b : Z.

  Definition lin (s : gst) : Prop :=
    g_ts s * a + g_tt s * b = g_tr s /\ g_ns s * a + g_nt s * b = g_nr s.
  Definition ginv (s : gst) : Prop := lin s /\ Z.gcd (g_tr s) (g_nr s) = Z.gcd a b.

  Lemma ginv_init : ginv (gcdext_init a b).
  Proof.
    unfold ginv, lin, gcdext_init; cbn [g_ts g_tt g_tr g_ns g_nt g_nr].
    destruct ((a =? 0) && (b =? 0)) eqn:E; repeat split; lia.
  Qed.

  Lemma gcdext_step_inl : forall s s', gcdext_step s = inl s' ->
    g_nr s <> 0 /\
    s' = {| g_ts := g_ns s; g_tt := g_nt s; g_tr := g_nr s;
            g_ns := g_ts s - Z.quot (g_tr s) (g_nr s) * g_ns s;
            g_nt := g_tt s - Z.quot (g_tr s) (g_nr s) * g_nt s;
            g_nr := Z.rem (g_tr s) (g_nr s) |}.
  Proof.
    unfold gcdext_step. intros s s' H. destruct (g_nr s =? 0) eqn:E; [discriminate|].
    inversion H; subst. split; [lia|reflexivity].
  Qed.

  Lemma gcdext_step_inr : forall s r, gcdext_step s = inr r -> r = s /\ g_nr s = 0.
  Proof.
    unfold gcdext_step. intros s r H. destruct (g_nr s =? 0) eqn:E; [|discriminate].
    inversion H; subst. split; [reflexivity|lia].
  Qed.

  Lemma ginv_step : forall s s', ginv s -> gcdext_step s = inl s' -> ginv s'.
  Proof.
    intros s s' [[L1 L2] G] H. apply gcdext_step_inl in H. destruct H as [Hnz ->].
    unfold ginv, lin; cbn [g_ts g_tt g_tr g_ns g_nt g_nr].
    assert (Hq := Z.quot_rem' (g_tr s) (g_nr s)).
    repeat split; try nia.
    rewrite Z.gcd_comm, Z.gcd_rem by auto. rewrite Z.gcd_comm. exact G.
  Qed.

  Lemma gcdext_step_decreases : forall s s', gcdext_step s = inl s' ->
    (Z.to_nat (Z.abs (g_nr s')) < Z.to_nat (Z.abs (g_nr s)))%nat.
  Proof.
    intros s s' H. apply gcdext_step_inl in H. destruct H as [Hnz ->].
    cbn [g_nr]. assert (Hb := Z.rem_bound_abs (g_tr s) (g_nr s) Hnz). lia.
  Qed.

  Lemma gcdext_loop_total : forall Inv : gst -> Prop,
    (forall s s', Inv s -> gcdext_step s = inl s' -> Inv s') -> Inv (gcdext_init a b) ->
    exists sf, run_loop gcdext_step (gcdext_fuel b) (gcdext_init a b) = Ok sf /\ Inv sf /\ g_nr sf = 0.
  Proof.
    intros Inv Hkeep Hinit.
    destruct (run_loop_total gcdext_step Inv (fun s => Z.to_nat (Z.abs (g_nr s)))) with (fuel := gcdext_fuel b) (s := gcdext_init a b)
      as (r & sf & Hr & Hsf & Hx); auto.
    - intros s s' Hs H. split; [eapply Hkeep; eauto | apply gcdext_step_decreases; auto].
    - unfold gcdext_fuel, gcdext_init; cbn [g_nr]. lia.
    - apply gcdext_step_inr in Hx. destruct Hx as [-> Hz]. eauto.
  Qed.

  (* mp_gcdext never runs out of fuel, returns the non-negative gcd and cofactors with s*a + t*b = g *)
  Theorem gcdext_bezout : exists g s t,
    mp_gcdext a b = Ok (g, s, t) /\ g = Z.gcd a b /\ s * a + t * b = g.
  Proof.
    destruct (gcdext_loop_total ginv ginv_step ginv_init) as (sf & Hsf & [[L1 L2] G] & Hz).
    unfold mp_gcdext. rewrite Hsf. cbn [bind].
    rewrite Hz, Z.gcd_0_r in G.
    destruct (g_tr sf <? 0) eqn:E; do 3 eexists; (split; [reflexivity|]); split; lia.
  Qed.
End Euclid.

(* mp_invert, m <> 0: same existence condition as mpz_invert, result in [0, |m|), a*r = 1 (mod m) *)
Theorem invert_spec : forall a m, m <> 0 ->
  exists o, mp_invert a m = Ok o /\ gmp_invert_spec a m o.
Proof.
  intros a m Hm. destruct (gcdext_bezout a m) as (g & s & t & Hg & Hgcd & Hbez).
  unfold mp_invert. rewrite Hg. cbn [bind fst snd].
  destruct (negb (g =? 1)) eqn:E.
  - exists None. split; [reflexivity|]. cbn. lia.
  - assert (g = 1) by lia. subst g.
    rewrite fdiv_r_spec by auto. cbn [bind].
    eexists. split; [reflexivity|]. cbn [gmp_invert_spec].
    split; [lia|].
    assert (Hdm := Z.div_mod s m Hm).
    assert (Hrange := Z.mod_bound_or s m Hm).
    destruct (s mod m <? 0) eqn:E2.
    + split; [lia|].
      destruct (Z_lt_le_dec 0 m) as [Hp|Hn]; [lia|].
      exists (- a * (s / m) - a - t). rewrite Z.abs_neq by lia. nia.
    + split.
      * destruct (Z.eq_dec (s mod m) 0) as [Ez|Enz]; [|lia].
        (* m divides s, hence m divides 1 *)
        split; [lia|]. assert (Hd : (m | 1)).
        { exists (a * (s / m) + t). nia. }
        apply Z.divide_1_r in Hd. lia.
      * exists (- a * (s / m) - t). nia.
Qed.
