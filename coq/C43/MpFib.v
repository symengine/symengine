(* C43 -- Fibonacci / Lucas numbers by 2x2 matrix powers (repeated squaring), factorial *)
From SE Require Import Base.Prelude C43.MpModel C43.MpSpec.
From Coq Require Import Lia ZifyBool ZifyNat Arith.
Local Open Scope Z_scope.

Lemma mat_eq : forall a b, m00 a = m00 b -> m01 a = m01 b -> m10 a = m10 b -> m11 a = m11 b -> a = b.
Proof. intros [] []; cbn; intros; subst; reflexivity. Qed.

Lemma mmul_assoc : forall a b c, mmul (mmul a b) c = mmul a (mmul b c).
Proof. intros. apply mat_eq; cbn [mmul mid m00 m01 m10 m11]; ring. Qed.
Lemma mmul_id_l : forall a, mmul mid a = a.
Proof. intros. apply mat_eq; cbn [mmul mid m00 m01 m10 m11]; ring. Qed.
Lemma mmul_id_r : forall a, mmul a mid = a.
Proof. intros. apply mat_eq; cbn [mmul mid m00 m01 m10 m11]; ring. Qed.

Fixpoint mpown (a : mat) (n : nat) : mat :=
  match n with O => mid | S n' => mmul (mpown a n') a end.

Lemma mpown_add : forall a m n, mpown a (m + n) = mmul (mpown a m) (mpown a n).
Proof.
  induction n; cbn [mpown].
  - rewrite Nat.add_0_r, mmul_id_r. reflexivity.
  - rewrite Nat.add_succ_r. cbn [mpown]. rewrite IHn, mmul_assoc. reflexivity.
Qed.

(* two_by_two_matrix::pow (recursive repeated squaring) is the n-fold product *)
Lemma mpow_pos_spec : forall a p, mpow_pos a p = mpown a (Pos.to_nat p).
Proof.
  induction p; cbn [mpow_pos].
  - rewrite IHp, Pos2Nat.inj_xI. cbn [mpown].
    replace (2 * Pos.to_nat p)%nat with (Pos.to_nat p + Pos.to_nat p)%nat by lia.
    rewrite mpown_add. reflexivity.
  - rewrite IHp, Pos2Nat.inj_xO.
    replace (2 * Pos.to_nat p)%nat with (Pos.to_nat p + Pos.to_nat p)%nat by lia.
    rewrite mpown_add. reflexivity.
  - rewrite Pos2Nat.inj_1. cbn [mpown]. rewrite mmul_id_l. reflexivity.
Qed.
Lemma mpow_spec : forall a n, mpow a n = mpown a (N.to_nat n).
Proof. destruct n; cbn [mpow]; [reflexivity|]. rewrite mpow_pos_spec. reflexivity. Qed.

(* F(n-1), with F(-1) = 1 *)
Definition fibp (n : nat) : Z := match n with O => 1 | S k => fibn k end.
Definition lucp (n : nat) : Z := match n with O => -1 | S k => lucn k end.

Lemma fibn_SS : forall n, fibn (S (S n)) = fibn n + fibn (S n).
Proof. reflexivity. Qed.
Lemma lucn_SS : forall n, lucn (S (S n)) = lucn n + lucn (S n).
Proof. reflexivity. Qed.

Lemma fibp_eq : forall n, fibp n = fibn (S n) - fibn n.
Proof. destruct n; cbn [fibp]; [reflexivity|]. rewrite fibn_SS. ring. Qed.

Lemma fib_matrix_closed : forall n,
  mpown {| m00 := 1; m01 := 1; m10 := 1; m11 := 0 |} n =
  {| m00 := fibn (S n); m01 := fibn n; m10 := fibn n; m11 := fibn (S n) - fibn n |}.
Proof.
  induction n; [reflexivity|]. cbn [mpown]. rewrite IHn.
  apply mat_eq; cbn [mmul m00 m01 m10 m11]; rewrite ?fibn_SS; ring.
Qed.

Theorem fib_spec : forall n, mp_fib_ui n = fibn (N.to_nat n).
Proof. intros. unfold mp_fib_ui, fib_matrix. rewrite mpow_spec, fib_matrix_closed. reflexivity. Qed.

(* mpz_fib2_ui: F(n) and F(n-1), with F(-1) = 1 *)
Theorem fib2_spec : forall n, mp_fib2_ui n = (fibn (N.to_nat n), fibp (N.to_nat n)).
Proof. intros. unfold mp_fib2_ui, fib_matrix. rewrite mpow_spec, fib_matrix_closed, fibp_eq. reflexivity. Qed.

Lemma lucn_fib : forall n, lucn n = 2 * fibn (S n) - fibn n /\ lucn (S n) = 2 * fibn (S (S n)) - fibn (S n).
Proof.
  induction n as [|n [H1 H2]]; [split; reflexivity|].
  split; [exact H2|]. rewrite lucn_SS, H1, H2, (fibn_SS (S n)), (fibn_SS n). ring.
Qed.

Theorem lucnum_spec : forall n, mp_lucnum_ui n = lucn (N.to_nat n).
Proof.
  intros. unfold mp_lucnum_ui, luc_matrix. rewrite mpow_spec, fib_matrix_closed.
  cbn [mmul m00 m01 m10 m11]. destruct (lucn_fib (N.to_nat n)) as [H _]. rewrite H. ring.
Qed.

(* mpz_lucnum2_ui: L(n) and L(n-1), with L(-1) = -1 *)
Theorem lucnum2_spec : forall n, mp_lucnum2_ui n = (lucn (N.to_nat n), lucp (N.to_nat n)).
Proof.
  intros. unfold mp_lucnum2_ui. destruct (n =? 0)%N eqn:E.
  - assert (n = 0%N) by lia. subst. reflexivity.
  - unfold luc_matrix. rewrite mpow_spec, fib_matrix_closed.
    assert (Hn : N.to_nat n = S (N.to_nat (n - 1))) by lia. rewrite Hn.
    cbn [mmul m00 m01 m10 m11 lucp].
    destruct (lucn_fib (N.to_nat (n - 1))) as [H1 H2]. rewrite H1, H2, fibn_SS. f_equal; ring.
Qed.

Lemma fac_loop_spec : forall cnt k,
  fac_loop cnt (Z.of_nat (S k)) (Z.of_nat (fact k)) = Z.of_nat (fact (k + cnt)).
Proof.
  induction cnt; intros k; cbn [fac_loop].
  - rewrite Nat.add_0_r. reflexivity.
  - replace (Z.of_nat (S k) + 1) with (Z.of_nat (S (S k))) by lia.
    replace (Z.of_nat (fact k) * Z.of_nat (S k)) with (Z.of_nat (fact (S k))) by (cbn [fact]; lia).
    rewrite IHcnt. f_equal. f_equal. lia.
Qed.

Theorem fac_spec : forall n, mp_fac_ui n = Z.of_nat (fact (N.to_nat n)).
Proof.
  intros. unfold mp_fac_ui.
  change (fac_loop (N.to_nat (n - 1)) 2 1) with (fac_loop (N.to_nat (n - 1)) (Z.of_nat 2) (Z.of_nat (fact 1))).
  rewrite fac_loop_spec. destruct (N.eq_dec n 0) as [->|Hn]; [reflexivity|].
  f_equal. f_equal. lia.
Qed.
