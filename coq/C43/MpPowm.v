(* C43 -- modular exponentiation (mp_powm): boost's square-and-multiply loop with truncating %,
   the sign repair of mp_boost.cpp, negative exponents through mp_invert *)
From SE Require Import Base.Prelude C43.MpModel C43.MpSpec C43.MpLoop C43.MpDiv C43.MpGcd.
From Coq Require Import Lia ZifyBool Znumtheory Zpow_facts.
Local Open Scope Z_scope.

Lemma rem_mod_abs : forall u c, c <> 0 -> (Z.rem u c) mod (Z.abs c) = u mod (Z.abs c).
Proof.
  intros u c Hc. assert (H := Z.quot_rem' u c).
  replace (Z.rem u c) with (u + (- Z.quot u c * Z.sgn c) * Z.abs c).
  - apply Z_mod_plus_full.
  - assert (Hs := Z.sgn_abs c). nia.
Qed.

Lemma mul_mod_abs : forall M x y x' y', 0 < M -> x mod M = x' mod M -> y mod M = y' mod M ->
  (x * y) mod M = (x' * y') mod M.
Proof.
  intros. rewrite Zmult_mod, H0, H1, <- Zmult_mod. reflexivity.
Qed.

Lemma bpowm_pos_mod : forall p x y c, c <> 0 ->
  (bpowm_pos x y p c) mod (Z.abs c) = (x * y ^ (Zpos p)) mod (Z.abs c).
Proof.
  induction p; intros x y c Hc; cbn [bpowm_pos]; assert (HM : 0 < Z.abs c) by lia.
  - rewrite IHp, Pos2Z.inj_xI, Z.pow_add_r, Z.pow_twice_r, Z.pow_1_r, <- Z.pow_mul_l by (auto; lia).
    replace (x * ((y * y) ^ Z.pos p * y)) with ((x * y) * (y * y) ^ Z.pos p) by ring.
    apply mul_mod_abs; auto using rem_mod_abs.
    rewrite Zpower_mod, rem_mod_abs, <- Zpower_mod by auto. reflexivity.
  - rewrite IHp, Pos2Z.inj_xO, Z.pow_twice_r, <- Z.pow_mul_l by auto.
    apply mul_mod_abs; auto.
    rewrite Zpower_mod, rem_mod_abs, <- Zpower_mod by auto. reflexivity.
  - rewrite rem_mod_abs by auto. rewrite Z.pow_1_r. reflexivity.
Qed.

Lemma bpowm_pos_nonneg : forall p x y c, c <> 0 -> 0 <= x -> 0 <= y -> 0 <= bpowm_pos x y p c.
Proof.
  induction p; intros x y c Hc Hx Hy; cbn [bpowm_pos].
  - apply IHp; auto; apply Z.rem_nonneg; auto; nia.
  - apply IHp; auto; apply Z.rem_nonneg; auto; nia.
  - apply Z.rem_nonneg; auto; nia.
Qed.

(* boost::multiprecision::powm(a, e, c), e >= 0: congruent to a^e, |result| < |c| *)
Lemma bpowm_mod : forall a e c, c <> 0 -> 0 <= e ->
  exists r, bpowm a e c = Ok r /\ r mod (Z.abs c) = (a ^ e) mod (Z.abs c) /\ Z.abs r < Z.abs c /\ (0 <= a -> 0 <= r).
Proof.
  intros a e c Hc He. unfold bpowm. destruct (c =? 0) eqn:E; [lia|].
  destruct e as [|p|p]; [| |lia].
  - eexists; split; [reflexivity|]. rewrite rem_mod_abs by auto. rewrite Z.pow_0_r.
    split; [reflexivity|]. split; [apply Z.rem_bound_abs; auto|]. intros _. apply Z.rem_nonneg; auto; lia.
  - eexists; split; [reflexivity|]. rewrite rem_mod_abs, bpowm_pos_mod by auto.
    rewrite Z.mul_1_l. split; [reflexivity|]. split; [apply Z.rem_bound_abs; auto|].
    intros Ha. apply Z.rem_nonneg; auto. apply bpowm_pos_nonneg; auto; lia.
Qed.

(* mp_powm with a non-negative exponent is mpz_powm: the least non-negative residue of base^exp modulo |m| *)
Theorem powm_spec : forall base e m, m <> 0 -> 0 <= e ->
  mp_powm base e m = Ok ((base ^ e) mod (Z.abs m)).
Proof.
  intros base e m Hm He. unfold mp_powm. destruct (e <? 0) eqn:E; [lia|].
  destruct (bpowm_mod base e m Hm He) as (r & Hr & Hmod & Hab & _). rewrite Hr. cbn [bind].
  f_equal. rewrite <- Hmod.
  destruct (r <? 0) eqn:E2.
  - rewrite <- (Z_mod_plus_full r 1 (Z.abs m)). rewrite Z.mul_1_l. symmetry. apply Z.mod_small. lia.
  - symmetry. apply Z.mod_small. lia.
Qed.

(* negative exponent: defined exactly when the base is invertible modulo m (GMP raises a division by zero
   otherwise, the Boost backend throws SymEngineException); the result r in [0,|m|) satisfies r * base^|e| = 1 (mod m) *)
Theorem powm_spec_neg : forall base e m, m <> 0 -> e < 0 ->
  (Z.gcd base m <> 1 /\ mp_powm base e m = ErrExn EXN_SYMENGINE) \/
  (Z.gcd base m = 1 /\ exists r, mp_powm base e m = Ok r /\ 0 <= r < Z.abs m /\ (m | r * base ^ (- e) - 1)).
Proof.
  intros base e m Hm He. unfold mp_powm. destruct (e <? 0) eqn:E; [|lia].
  destruct (invert_spec base m Hm) as (o & Ho & Hspec). rewrite Ho. cbn [bind].
  destruct o as [bi|]; cbn [gmp_invert_spec] in Hspec.
  - right. destruct Hspec as (Hg & Hrange & Hdiv). split; auto.
    assert (He' : 0 <= Z.abs e) by lia.
    destruct (bpowm_mod bi (Z.abs e) m Hm He') as (r & Hr & Hmod & Hab & Hnn).
    exists r. split; auto. split; [specialize (Hnn ltac:(lia)); lia|].
    apply Z.divide_abs_l. apply Z.mod_divide; [lia|].
    replace (- e) with (Z.abs e) by lia.
    assert (HM : 0 < Z.abs m) by lia.
    (* r * base^k = bi^k * base^k = (bi*base)^k = 1 *)
    assert (H1 : (r * base ^ Z.abs e) mod Z.abs m = 1 mod Z.abs m).
    { rewrite Zmult_mod, Hmod, <- Zmult_mod, <- Z.pow_mul_l.
      rewrite Zpower_mod by auto.
      assert (Hb : (bi * base) mod Z.abs m = 1 mod Z.abs m).
      { apply Z.divide_abs_l in Hdiv. destruct Hdiv as [k Hk].
        replace (bi * base) with (1 + k * Z.abs m) by lia. apply Z_mod_plus_full. }
      rewrite Hb, <- Zpower_mod by auto. rewrite Z.pow_1_l by lia. reflexivity. }
    rewrite Zminus_mod, H1, Z.sub_diag. apply Z.mod_0_l. lia.
  - left. cbn in Hspec. auto.
Qed.
