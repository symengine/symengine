(* C43 -- integer n-th roots by Newton's iteration (positive_root / mp_root / mp_rootrem / mp_sqrt / mp_sqrtrem /
   mp_perfect_square_p): the loop terminates and returns the truncated root with the right exactness flag *)
From SE Require Import Base.Prelude C43.MpModel C43.MpSpec C43.MpLoop.
From Coq Require Import Lia ZifyBool Znumtheory.
Local Open Scope Z_scope.

(* weighted AM-GM / tangent inequality:  (k+1) r x^k <= r^(k+1) + k x^(k+1)  for r, x >= 0 *)
Lemma tangent_ineq : forall k, 0 <= k -> forall r x, 0 <= r -> 0 <= x ->
  (k + 1) * r * x ^ k <= r ^ (k + 1) + k * x ^ (k + 1).
Proof.
  intros k Hk. pattern k. apply natlike_ind; auto.
  - intros. rewrite Z.pow_0_r, Z.pow_1_r. lia.
  - intros j Hj IH r x Hr Hx.
    specialize (IH r x Hr Hx).
    replace (j + 1) with (Z.succ j) in IH by lia.
    rewrite !Z.pow_succ_r in IH by lia.
    replace (Z.succ j + 1) with (Z.succ (Z.succ j)) by lia.
    rewrite !Z.pow_succ_r by lia.
    set (R := r ^ j) in *. set (X := x ^ j) in *.
    assert (HR : 0 <= R) by (apply Z.pow_nonneg; auto).
    assert (HX : 0 <= X) by (apply Z.pow_nonneg; auto).
    (* r^(j+2) + (j+1) x^(j+2) - (j+2) r x^(j+1) = r * (IH slack) + (j+1) x^j (x - r)^2 *)
    assert (Hsq : 0 <= (Z.succ j) * X * ((x - r) * (x - r))) by (apply Z.mul_nonneg_nonneg; [apply Z.mul_nonneg_nonneg; lia | apply Z.square_nonneg]).
    assert (Hm : 0 <= r * (r * R + j * (x * X) - Z.succ j * r * X)) by (apply Z.mul_nonneg_nonneg; lia).
    clear - Hsq Hm. lia.
Qed.

Section Newton.
  Variables n i : Z.
  Hypothesis Hn : 2 <= n.
  Hypothesis Hi : 1 <= i.

  Lemma root_step_ok : forall x, 1 <= x ->
    root_step n i x = Ok (((n - 1) * x + i / x ^ (n - 1)) / n).
  Proof.
    intros x Hx. unfold root_step. rewrite zpow_spec.
    assert (HX : 0 < x ^ (n - 1)) by (apply Z.pow_pos_nonneg; lia).
    unfold bquot. destruct (x ^ (n - 1) =? 0) eqn:E; [lia|]. cbn [bind].
    destruct (n =? 0) eqn:E2; [lia|].
    rewrite (Z.quot_div_nonneg i) by lia.
    assert (0 <= i / x ^ (n - 1)) by (apply Z.div_pos; lia).
    rewrite Z.quot_div_nonneg by nia. reflexivity.
  Qed.

  Definition nstep (x : Z) : Z := ((n - 1) * x + i / x ^ (n - 1)) / n.

  Lemma pow_n_split : forall x, x ^ n = x * x ^ (n - 1).
  Proof. intros x. replace n with (Z.succ (n - 1)) at 1 by lia. apply Z.pow_succ_r. lia. Qed.

  (* every iterate is at least any r with r^n <= i *)
  Lemma nstep_lower : forall x r, 1 <= x -> 0 <= r -> r ^ n <= i -> r <= nstep x.
  Proof.
    intros x r Hx Hr Hrn. unfold nstep.
    apply Z.div_le_lower_bound; [lia|].
    set (X := x ^ (n - 1)). assert (HX : 0 < X) by (apply Z.pow_pos_nonneg; lia).
    set (d := i / X).
    assert (Hd : d * X <= i < (d + 1) * X).
    { unfold d. assert (H := Z.div_mod i X ltac:(lia)). assert (H2 := Z.mod_pos_bound i X HX). nia. }
    assert (Hd0 : 0 <= d) by (apply Z.div_pos; lia).
    destruct (Z_le_gt_dec (n * r) ((n - 1) * x + d)) as [|Hgt]; [lia|exfalso].
    (* d + 1 <= n r - (n-1) x, so i < (n r - (n-1) x) x^(n-1) <= r^n *)
    assert (Ht := tangent_ineq (n - 1) ltac:(lia) r x Hr ltac:(lia)).
    replace (n - 1 + 1) with n in Ht by lia.
    rewrite (pow_n_split x) in Ht. fold X in Ht.
    assert (Hk : (d + 1) * X <= (n * r - (n - 1) * x) * X) by (apply Z.mul_le_mono_nonneg_r; lia).
    nia.
  Qed.

  (* above the root the iteration decreases *)
  Lemma nstep_decreases : forall x, 1 <= x -> i < x ^ n -> nstep x < x.
  Proof.
    intros x Hx Hlt. unfold nstep.
    set (X := x ^ (n - 1)). assert (HX : 0 < X) by (apply Z.pow_pos_nonneg; lia).
    rewrite (pow_n_split x) in Hlt. fold X in Hlt.
    assert (Hd : i / X < x) by (apply Z.div_lt_upper_bound; nia).
    apply Z.div_lt_upper_bound; lia.
  Qed.

  Definition rinv (y : Z) : Prop := 1 <= y /\ forall r, 0 <= r -> r ^ n <= i -> r <= y.

  Lemma rinv_nstep : forall x, 1 <= x -> rinv (nstep x).
  Proof.
    intros x Hx. split.
    - apply (nstep_lower x 1); try lia. rewrite Z.pow_1_l by lia. lia.
    - intros r Hr Hrn. apply nstep_lower; auto.
  Qed.

  Lemma root_loop_step_eq : forall y, 1 <= y ->
    root_loop_step n i y = if nstep y <? y then inl (nstep y) else inr (Ok y).
  Proof. intros y Hy. unfold root_loop_step. rewrite root_step_ok by auto. reflexivity. Qed.

  (* positive_root returns the floor of the n-th root of i and tells whether it is exact *)
  Theorem positive_root_spec : exists r,
    positive_root i n = Ok (r, r ^ n =? i) /\ 1 <= r /\ r ^ n <= i < (r + 1) ^ n.
  Proof using Hn Hi.
    unfold positive_root. rewrite root_step_ok by lia. fold (nstep 1). cbn [bind].
    assert (H0 : rinv (nstep 1)) by (apply rinv_nstep; lia).
    set (y0 := nstep 1) in *.
    destruct (run_loop_total (root_loop_step n i) rinv (fun y => Z.to_nat y)) with (fuel := Z.to_pos (Z.abs y0 + 2)) (s := y0)
      as (res & x & Hres & [Hx1 Hxr] & Hexit); auto.
    { intros s s' [Hs _] Hstep. rewrite root_loop_step_eq in Hstep by auto.
      destruct (nstep s <? s) eqn:E; inversion Hstep; subst. split; [apply rinv_nstep; auto | lia]. }
    { destruct H0. lia. }
    rewrite Hres. cbn [bind].
    rewrite root_loop_step_eq in Hexit by auto. destruct (nstep x <? x) eqn:Hge; inversion Hexit; subst res. cbn [bind].
    exists x. rewrite zpow_spec. split; [reflexivity|]. split; auto. split.
    - destruct (Z_le_gt_dec (x ^ n) i); auto. assert (Hd := nstep_decreases x Hx1 ltac:(lia)). lia.
    - destruct (Z_lt_le_dec i ((x + 1) ^ n)); auto. specialize (Hxr (x + 1) ltac:(lia) ltac:(lia)). lia.
  Qed.
End Newton.

Lemma pow_opp_odd : forall r n, 0 <= n -> Z.rem n 2 <> 0 -> (- r) ^ n = - r ^ n.
Proof.
  intros r n Hn Hodd. apply Z.pow_opp_odd. exists (Z.quot n 2).
  assert (H := Z.quot_rem' n 2). assert (Hb := Z.rem_bound_pos n 2 Hn). lia.
Qed.

(* mp_root = mpz_root for every radicand and every index n >= 1 for which the real root exists *)
Theorem root_spec : forall i n, 1 <= n -> (0 <= i \/ Z.rem n 2 <> 0) ->
  exists r e, mp_root i n = Ok (r, e) /\ trunc_root_spec i n r e.
Proof.
  intros i n Hn Hdom. unfold mp_root.
  destruct (n =? 0) eqn:E0; [lia|].
  destruct (n =? 1) eqn:E1.
  { assert (n = 1) by lia. subst. exists i, true. split; [reflexivity|]. unfold trunc_root_spec.
    rewrite !Z.pow_1_r. repeat split; intros; try lia. }
  destruct (i =? 0) eqn:Ei.
  { assert (i = 0) by lia. subst. exists 0, true. split; [reflexivity|]. unfold trunc_root_spec.
    rewrite Z.pow_0_l by lia. rewrite Z.add_0_l, Z.pow_1_l by lia. repeat split; intros; try lia. }
  destruct (0 <? i) eqn:Ep.
  { destruct (positive_root_spec n i ltac:(lia) ltac:(lia)) as (r & Hr & Hr1 & Hrange).
    exists r, (r ^ n =? i). split; [exact Hr|]. unfold trunc_root_spec. repeat split; intros; try lia. }
  destruct ((i <? 0) && (Z.rem n 2 =? 0)) eqn:Eneg; [lia|].
  assert (Hodd : Z.rem n 2 <> 0) by lia.
  destruct (positive_root_spec n (- i) ltac:(lia) ltac:(lia)) as (r & Hr & Hr1 & Hrange).
  rewrite Hr. cbn [bind fst snd].
  exists (r * -1), (r ^ n =? - i). split; [reflexivity|]. unfold trunc_root_spec.
  replace (- (r * -1)) with r by lia.
  split; [intros; lia|]. split; [intros; split; [lia|exact Hrange]|].
  replace (r * -1) with (- r) by lia. rewrite pow_opp_odd by (auto; lia). lia.
Qed.

Theorem root_errors : forall i n,
  (n = 0 -> mp_root i n = ErrExn EXN_STD) /\
  (1 < n -> i < 0 -> Z.rem n 2 = 0 -> mp_root i n = ErrExn EXN_STD).
Proof.
  intros i n. unfold mp_root. split.
  - intros ->. reflexivity.
  - intros Hn Hi He. destruct (n =? 0) eqn:E0; [lia|]. destruct (n =? 1) eqn:E1; [lia|].
    destruct (i =? 0) eqn:E2; [lia|]. destruct (0 <? i) eqn:E3; [lia|].
    destruct ((i <? 0) && (Z.rem n 2 =? 0)) eqn:E4; [reflexivity|lia].
Qed.

Lemma pow_bracket_unique : forall n r a, 0 < n -> 0 <= r -> 0 <= a -> r ^ n <= a ^ n < (r + 1) ^ n -> r = a.
Proof.
  intros n r a Hn Hr Ha [H1 H2]. apply Z.pow_lt_mono_l_iff in H2; try lia.
  destruct (Z_le_gt_dec r a); [lia|]. assert (a ^ n < r ^ n) by (apply Z.pow_lt_mono_l; lia). lia.
Qed.

(* for odd n a negative a is excluded as well: a^n would be negative *)
Lemma odd_root_bracket : forall n r a, 0 < n -> Z.rem n 2 <> 0 -> 0 <= r -> r ^ n <= a ^ n < (r + 1) ^ n -> r = a.
Proof.
  intros n r a Hn Hodd Hr Hb. apply (pow_bracket_unique n); auto.
  destruct (Z_lt_le_dec a 0); auto. exfalso.
  assert (Hp : 0 < (- a) ^ n) by (apply Z.pow_pos_nonneg; lia). rewrite pow_opp_odd in Hp by (auto; lia).
  assert (0 <= r ^ n) by (apply Z.pow_nonneg; lia). lia.
Qed.

(* for an odd index the exactness flag of the truncated root says whether i is an n-th power *)
Lemma root_exact_iff : forall i n r e, 3 <= n -> Z.rem n 2 <> 0 -> trunc_root_spec i n r e ->
  (e = true <-> exists a, a ^ n = i).
Proof.
  intros i n r e Hn Hodd (Hpos & Hneg & Hex). rewrite Hex. split; [intros H; exists r; exact H|].
  intros [a Ha]. subst i.
  (* the truncated root brackets a^n, or (-a)^n = - a^n when that is negative *)
  destruct (Z_lt_le_dec (a ^ n) 0) as [Hi|Hi].
  - destruct (Hneg Hi) as [Hr Hb]. rewrite <- pow_opp_odd in Hb by (auto; lia).
    assert (- r = - a) by (apply (odd_root_bracket n); auto; lia). replace r with a by lia. reflexivity.
  - destruct (Hpos Hi) as [Hr Hb]. rewrite (odd_root_bracket n r a); auto; lia.
Qed.

Theorem rootrem_spec : forall i n, 1 <= n -> (0 <= i \/ Z.rem n 2 <> 0) ->
  exists r e, mp_rootrem i n = Ok (r, i - r ^ n) /\ trunc_root_spec i n r e.
Proof.
  intros i n Hn Hd. destruct (root_spec i n Hn Hd) as (r & e & Hr & Hs).
  exists r, e. unfold mp_rootrem. rewrite Hr. cbn [bind fst]. rewrite zpow_spec. auto.
Qed.

Theorem sqrt_spec : forall i, 0 <= i -> mp_sqrt i = Ok (Z.sqrt i).
Proof.
  intros i Hi. destruct (root_spec i 2 ltac:(lia) ltac:(lia)) as (r & e & Hr & Hs & _).
  unfold mp_sqrt. rewrite Hr. cbn [bind fst]. f_equal.
  destruct (Hs Hi) as [Hr0 Hrange]. symmetry. apply Z.sqrt_unique.
  replace (Z.succ r) with (r + 1) by lia. rewrite !Z.pow_2_r in Hrange. lia.
Qed.

Theorem sqrtrem_spec : forall i, 0 <= i -> mp_sqrtrem i = Ok (Z.sqrt i, i - Z.sqrt i * Z.sqrt i).
Proof.
  intros i Hi. unfold mp_sqrtrem. rewrite sqrt_spec by auto. cbn [bind]. rewrite zpow_spec, Z.pow_2_r. reflexivity.
Qed.

Theorem perfect_square_spec : forall i, exists b, mp_perfect_square_p i = Ok b /\ (b = true <-> perfect_square i).
Proof.
  intros i. unfold mp_perfect_square_p, perfect_square. destruct (i <? 0) eqn:E.
  - exists false. split; [reflexivity|]. split; [discriminate|]. intros [a Ha]. nia.
  - destruct (root_spec i 2 ltac:(lia) ltac:(lia)) as (r & e & Hr & Hs & _ & Hex).
    rewrite Hr. cbn [bind snd]. exists e. split; [reflexivity|]. rewrite Hex. rewrite Z.pow_2_r.
    split; [intros H; exists r; exact H|].
    intros [a Ha]. destruct (Hs ltac:(lia)) as [Hr0 Hrange]. rewrite !Z.pow_2_r in Hrange.
    assert (Habs : Z.abs a = r) by nia. nia.
Qed.
