(* C43 -- functions that depend on the primality test: mp_probab_prime_p, mp_nextprime, mp_perfect_power_p.
   miller_rabin_test is the parameter [mr]; the hypothesis [mr_correct] says that it decides primality of
   non-negative numbers (the library's test errs with probability <= 4^-25 on a composite). *)
From SE Require Import Base.Prelude C43.MpModel C43.MpSpec C43.MpLoop C43.MpRoot.
From Coq Require Import Lia ZifyBool Znumtheory.
Local Open Scope Z_scope.

Lemma even_not_prime : forall q, 2 < q -> Z.rem q 2 = 0 -> ~ prime q.
Proof.
  intros q Hq He Hp. assert (Hd : (2 | q)).
  { exists (Z.quot q 2). assert (H := Z.quot_rem' q 2). lia. }
  apply (prime_divisors q Hp) in Hd. lia.
Qed.

Lemma even_not_prime' : forall q, 2 < q -> q mod 2 = 0 -> ~ prime q.
Proof. intros q Hq He. apply even_not_prime; auto. rewrite Z.rem_mod_nonneg by lia. exact He. Qed.

Lemma prime_factor_exists : forall k, 2 <= k -> exists q, prime q /\ (q | k).
Proof.
  intros k Hk. assert (H : forall n, 0 <= n -> forall k, 2 <= k <= n -> exists q, prime q /\ (q | k)).
  { intros n Hn. pattern n. apply natlike_ind; auto.
    - intros; lia.
    - intros m Hm IH j Hj. destruct (prime_dec j) as [Hp|Hnp].
      + exists j. split; auto. apply Z.divide_refl.
      + destruct (not_prime_divide j ltac:(lia) Hnp) as (d & Hd & Hdiv).
        destruct (IH d ltac:(lia)) as (q & Hq & Hqd). exists q. split; auto.
        eapply Z.divide_trans; eauto. }
  apply (H k); lia.
Qed.

(* a perfect power is a q-th power for a prime q <= log2 |i| *)
Lemma power_prime_exponent : forall i a k, 2 <= k -> a ^ k = i -> 2 <= Z.abs i ->
  exists q c, prime q /\ c ^ q = i /\ q <= Z.log2 (Z.abs i).
Proof.
  intros i a k Hk Ha Hi.
  destruct (prime_factor_exists k Hk) as (q & Hq & [c Hc]).
  assert (Hq2 := prime_ge_2 _ Hq). assert (Hc0 : 0 < c) by nia.
  exists q, (a ^ c). split; auto. split.
  - rewrite <- Z.pow_mul_r by lia. rewrite <- Hc. exact Ha.
  - apply Z.log2_le_pow2; [lia|].
    assert (Hb : i = (a ^ c) ^ q) by (rewrite <- Z.pow_mul_r by lia; rewrite <- Hc; auto).
    rewrite Hb, Z.abs_pow.
    assert (Hb2 : 2 <= Z.abs (a ^ c)).
    { destruct (Z_le_gt_dec 2 (Z.abs (a ^ c))); auto. exfalso.
      assert (Hle : Z.abs (a ^ c) ^ q <= 1 ^ q) by (apply Z.pow_le_mono_l; lia).
      rewrite Z.pow_1_l in Hle by lia. rewrite <- Z.abs_pow, <- Hb in Hle. lia. }
    apply Z.pow_le_mono_l. lia.
Qed.

Lemma ilogb_double_ge : forall i, Z.log2 (Z.abs i) <= 2147483647 -> Z.log2 (Z.abs i) <= ilogb_double i.
Proof.
  intros i Hbig. unfold ilogb_double.
  destruct (1024 <=? Z.log2 (Z.abs i)) eqn:E1; [lia|].
  destruct ((53 <=? Z.log2 (Z.abs i)) && (2 ^ (Z.log2 (Z.abs i) + 1) - 2 ^ (Z.log2 (Z.abs i) - 53) <=? Z.abs i)) eqn:E2.
  - destruct (Z.log2 (Z.abs i) + 1 =? 1024); lia.
  - lia.
Qed.

Section WithMR.
  Variable mr : Z -> res bool.
  Hypothesis mr_correct : forall n, 0 <= n -> exists b, mr n = Ok b /\ (b = true <-> prime n).

  (* mp_probab_prime_p decides primality of |i| (like mpz_probab_prime_p, up to the value 1 / 2 of a positive answer) *)
  Theorem probab_prime_spec : forall i, exists b,
    mp_probab_prime_p mr i = Ok b /\ (b = true <-> prime (Z.abs i)).
  Proof using mr_correct.
    intros i. unfold mp_probab_prime_p.
    set (j := if i <? 0 then Z.abs i else i). assert (Hj : j = Z.abs i) by (unfold j; destruct (i <? 0) eqn:E; lia).
    clearbody j. subst j.
    destruct (Z.rem (Z.abs i) 2 =? 0) eqn:E.
    - exists (Z.abs i =? 2). split; [reflexivity|]. split.
      + intros H. assert (Z.abs i = 2) by lia. rewrite H0. exact prime_2.
      + intros Hp. destruct (Z_le_gt_dec (Z.abs i) 2) as [Hle|Hgt].
        * assert (H := prime_ge_2 _ Hp). lia.
        * exfalso. apply (even_not_prime (Z.abs i)); auto; lia.
    - apply mr_correct. lia.
  Qed.

  Definition np_inv (i c : Z) : Prop :=
    i < c /\ 2 <= c /\ c mod 2 = 1 /\ forall q, i < q < c -> ~ prime q.

  Lemma np_inv_init : forall i, 2 <= i -> np_inv i (if Z.rem i 2 =? 0 then i + 1 else i + 2).
  Proof.
    intros i Hi. rewrite Z.rem_mod_nonneg by lia. unfold np_inv.
    destruct (i mod 2 =? 0) eqn:E2.
    - split; [lia|]. split; [lia|]. split; [Z.div_mod_to_equations; lia|]. intros; lia.
    - split; [lia|]. split; [lia|]. split; [Z.div_mod_to_equations; lia|].
      intros q Hq. assert (q = i + 1) by lia. subst q. apply even_not_prime'; Z.div_mod_to_equations; lia.
  Qed.

  Lemma nextprime_step_cases : forall c, 0 <= c ->
    prime c /\ nextprime_step mr c = inr (Ok c) \/ ~ prime c /\ nextprime_step mr c = inl (c + 2).
  Proof.
    intros c Hc. unfold nextprime_step. destruct (probab_prime_spec c) as (b & -> & Hbp).
    rewrite Z.abs_eq in Hbp by lia. destruct b; [left|right]; split; auto.
    - apply Hbp. reflexivity.
    - intros Hp. apply Hbp in Hp. discriminate.
  Qed.

  Lemma np_inv_step : forall i s s', np_inv i s -> nextprime_step mr s = inl s' -> np_inv i s'.
  Proof.
    intros i s s' (Hs1 & Hs2 & Hs3 & Hs4) Hstep.
    destruct (nextprime_step_cases s ltac:(lia)) as [[_ E]|[Hnp E]]; rewrite E in Hstep; inversion Hstep; subst.
    split; [lia|]. split; [lia|]. split; [Z.div_mod_to_equations; lia|].
    intros q Hq. destruct (Z_lt_le_dec q s); [apply Hs4; lia|].
    destruct (Z.eq_dec q s) as [->|Hne]; [exact Hnp|].
    assert (q = s + 1) by lia. subst q. apply even_not_prime'; Z.div_mod_to_equations; lia.
  Qed.

  Lemma np_inv_exit : forall i c r, np_inv i c -> nextprime_step mr c = inr r -> r = Ok c /\ prime c.
  Proof.
    intros i c r (_ & Hc & _) Hexit.
    destruct (nextprime_step_cases c ltac:(lia)) as [[Hp E]|[_ E]]; rewrite E in Hexit; inversion Hexit; auto.
  Qed.

  (* partial correctness of mp_nextprime: a returned value is the least prime above i (= mpz_nextprime).
     Termination within the model's fuel needs a prime below about 3i (Bertrand's postulate), not proved here. *)
  Theorem nextprime_partial : forall i p, mp_nextprime mr i = Ok p -> next_prime_spec i p.
  Proof using mr_correct.
    intros i p. unfold mp_nextprime, next_prime_spec. destruct (i <? 2) eqn:E.
    - intros H; inversion H; subst. split; [lia|]. split; [exact prime_2|].
      intros q Hq Hp. assert (H2 := prime_ge_2 _ Hp). lia.
    - assert (H0 := np_inv_init i ltac:(lia)).
      set (c0 := if Z.rem i 2 =? 0 then i + 1 else i + 2) in *.
      clearbody c0. intros H.
      destruct (run_loop (nextprime_step mr) (Z.to_pos (c0 + 2)) c0) as [rr| | |] eqn:Hl; cbn [bind] in H; try discriminate.
      subst rr.
      destruct (run_loop_exit (nextprime_step mr) (np_inv i) (np_inv_step i) _ _ _ H0 Hl) as [c [Hc Hexit]].
      destruct (np_inv_exit i c _ Hc Hexit) as [Ec Hp]. inversion Ec; subst c.
      destruct Hc as (Hc1 & _ & _ & Hc4). auto.
  Qed.

  (* the search cannot have passed a prime above i *)
  Lemma np_inv_le_prime : forall i c q, np_inv i c -> prime q -> i < q -> c <= q.
  Proof.
    intros i c q (_ & _ & _ & Hnone) Hq Hi. destruct (Z_le_gt_dec c q); auto. exfalso. apply (Hnone q); auto; lia.
  Qed.

  (* termination of mp_nextprime within the model's fuel, given a prime in (i, 2i] (Bertrand's postulate provides one) *)
  Theorem nextprime_total_bertrand : forall i, (i < 2 \/ exists q, prime q /\ i < q <= 2 * i) ->
    exists p, mp_nextprime mr i = Ok p.
  Proof using mr_correct.
    intros i H. unfold mp_nextprime. destruct (i <? 2) eqn:E; [eexists; reflexivity|].
    destruct H as [H|(q & Hq & Hr)]; [lia|].
    assert (H0 := np_inv_init i ltac:(lia)).
    set (c0 := if Z.rem i 2 =? 0 then i + 1 else i + 2) in *.
    assert (Hc0 : i < c0) by (unfold c0; destruct (Z.rem i 2 =? 0); lia).
    clearbody c0.
    (* the candidates climb and stay at or below q *)
    destruct (run_loop_total (nextprime_step mr) (np_inv i) (fun c => Z.to_nat (q - c))) with (fuel := Z.to_pos (c0 + 2)) (s := c0)
      as (res & c & Hres & Hc & Hexit); auto; [|lia|].
    { intros s s' Hs Hstep. assert (Hs' := np_inv_step i s s' Hs Hstep). split; [exact Hs'|].
      assert (Hle := np_inv_le_prime i s' q Hs' Hq ltac:(lia)).
      destruct (nextprime_step_cases s) as [[_ E']|[_ E']]; [destruct Hs; lia| |]; rewrite E' in Hstep; inversion Hstep; subst.
      lia. }
    rewrite Hres. cbn [bind].
    destruct (np_inv_exit i c _ Hc Hexit) as [-> _]. eexists; reflexivity.
  Qed.

  Definition pp_inv (i p : Z) : Prop :=
    2 <= p /\ forall q, prime q -> q <= p -> ~ exists a, a ^ q = i.

  Lemma pp_inv_init : forall i, ~ perfect_square i -> pp_inv i 2.
  Proof.
    intros i Hns. split; [lia|]. intros q Hq Hle [a Ha]. assert (H2 := prime_ge_2 _ Hq). assert (q = 2) by lia. subst q.
    apply Hns. exists a. rewrite <- Z.pow_2_r. exact Ha.
  Qed.

  Lemma pp_step_cases : forall i mx p out, pp_inv i p -> pp_step mr i mx p = out ->
    match out with
    | inl p' => pp_inv i p'
    | inr (Ok true) => exists q a, 2 <= q /\ a ^ q = i
    | inr (Ok false) => exists p', p < p' /\ mx < p' /\ (forall q, p < q < p' -> ~ prime q)
    | inr _ => True
    end.
  Proof.
    intros i mx p out [Hp Hinv] Hstep. unfold pp_step in Hstep.
    destruct (mp_nextprime mr p) as [p'| | |] eqn:Hnp; try (subst out; exact I).
    apply nextprime_partial in Hnp. destruct Hnp as (Hlt & Hprime & Hnone).
    destruct (mx <? p') eqn:Emx.
    - subst out. exists p'. repeat split; auto; lia.
    - assert (Hodd : Z.rem p' 2 <> 0) by (intros He; apply (even_not_prime p'); auto; lia).
      destruct (root_spec i p' ltac:(lia) ltac:(right; exact Hodd)) as (r & e & Hr & Hspec).
      rewrite Hr in Hstep. assert (Hiff := root_exact_iff i p' r e ltac:(lia) Hodd Hspec).
      destruct e; subst out.
      + destruct Hiff as [H1 _]. destruct (H1 eq_refl) as [a Ha]. exists p', a. split; [lia|exact Ha].
      + split; [lia|]. intros q Hq Hle Hex.
        destruct (Z_le_gt_dec q p) as [Hqp|Hqp]; [exact (Hinv q Hq Hqp Hex)|].
        destruct (Z.eq_dec q p') as [->|Hne].
        * destruct Hiff as [_ H2]. specialize (H2 Hex). discriminate.
        * apply (Hnone q); auto; lia.
  Qed.

  (* partial correctness of mp_perfect_power_p (= mpz_perfect_power_p), for |i| < 2^(2^31) (the prime bound is an int) *)
  Theorem perfect_power_partial : forall i b, Z.log2 (Z.abs i) <= 2147483647 ->
    mp_perfect_power_p mr i = Ok b -> (b = true <-> perfect_power i).
  Proof using mr_correct.
    intros i b Hbig. unfold mp_perfect_power_p, perfect_power.
    destruct ((i =? 0) || (i =? 1) || (i =? -1)) eqn:E0.
    - intros H; inversion H; subst. split; auto. intros _.
      destruct (Z.eq_dec i 0) as [->|]; [exists 0, 2; split; [lia|reflexivity]|].
      destruct (Z.eq_dec i 1) as [->|]; [exists 1, 2; split; [lia|reflexivity]|].
      assert (i = -1) by lia. subst. exists (-1), 3. split; [lia|reflexivity].
    - destruct (perfect_square_spec i) as (sq & Hsq & Hsqiff). rewrite Hsq. cbn [bind].
      destruct sq.
      + intros H; inversion H; subst. split; auto. intros _.
        destruct Hsqiff as [H1 _]. destruct (H1 eq_refl) as [a Ha]. exists a, 2. split; [lia|]. rewrite Z.pow_2_r. exact Ha.
      + set (mx := ilogb_double i).
        destruct (run_loop (pp_step mr i mx) (Z.to_pos (mx + 2)) 2) as [rr| | |] eqn:Hl; cbn [bind]; try discriminate.
        intros ->.
        assert (H0 : pp_inv i 2) by (apply pp_inv_init; intros Hs; apply Hsqiff in Hs; discriminate).
        destruct (run_loop_exit (pp_step mr i mx) (pp_inv i)) with (fuel := Z.to_pos (mx + 2)) (s := 2) (r := @Ok bool b)
          as [p [Hp Hexit]]; auto.
        { intros s s' Hs Hstep. exact (pp_step_cases i mx s (inl s') Hs Hstep). }
        assert (Hc := pp_step_cases i mx p _ Hp Hexit). cbn in Hc.
        destruct b.
        * split; auto. intros _. destruct Hc as (q & a & Hq & Ha). exists a, q. auto.
        * split; [discriminate|]. intros (a & k & Hk & Ha). exfalso.
          (* i would be a q-th power for a prime q <= log2 |i| <= mx < p': the invariant excludes q <= p,
             and there is no prime strictly between p and p' *)
          destruct Hc as (p' & Hlt & Hmx & Hnone). destruct Hp as [Hp2 Hinv].
          destruct (power_prime_exponent i a k Hk Ha ltac:(lia)) as (q & c & Hq & Hc & Hlog).
          assert (Hge := ilogb_double_ge i Hbig). fold mx in Hge.
          destruct (Z_le_gt_dec q p) as [Hqp|Hqp].
          -- apply (Hinv q Hq Hqp). exists c. exact Hc.
          -- apply (Hnone q); auto. lia.
  Qed.
End WithMR.
