(* C43 -- the cofactors returned by mp_gcdext (extended Euclid with truncating division, signs fixed at the end)
   are exactly the cofactors documented for mpz_gcdext: |s| < |b|/(2g), |t| < |a|/(2g) with the manual's
   exceptional cases.  Since that specification determines (g, s, t) uniquely, the Boost backend's gcd_ext
   agrees with GMP's on every input. *)
From SE Require Import Base.Prelude C43.MpModel C43.MpSpec C43.MpLoop C43.MpGcd.
From Coq Require Import Lia ZifyBool Znumtheory.
Local Open Scope Z_scope.

Lemma sign_l1 : forall X Y q, X * Y <= 0 -> 0 <= q * Y -> (Y = 0 -> q = 0) -> X * q <= 0.
Proof.
  intros X Y q H1 H2 H3.
  destruct (Z.lt_trichotomy Y 0) as [HY|[HY|HY]].
  - assert (0 <= X) by nia. assert (q <= 0) by nia. nia.
  - rewrite (H3 HY). lia.
  - assert (X <= 0) by nia. assert (0 <= q) by nia. nia.
Qed.

Lemma sign_l2 : forall X Y q Z' W, X * Y <= 0 -> 0 <= q * Y -> 0 <= Z' -> 0 <= W * Y -> (Y = 0 -> W = 0) ->
  (X - q * Z') * W <= 0.
Proof.
  intros X Y q Z' W H1 H2 H3 H4 H5.
  destruct (Z.lt_trichotomy Y 0) as [HY|[HY|HY]].
  - assert (0 <= X) by nia. assert (q <= 0) by nia. assert (W <= 0) by nia.
    assert (0 <= X - q * Z') by nia. nia.
  - rewrite (H5 HY). lia.
  - assert (X <= 0) by nia. assert (0 <= q) by nia. assert (0 <= W) by nia.
    assert (X - q * Z' <= 0) by nia. nia.
Qed.

Lemma abs_sub_opp : forall x y, x * y <= 0 -> Z.abs (x - y) = Z.abs x + Z.abs y.
Proof. intros x y H. destruct (Z.abs_spec x), (Z.abs_spec y), (Z.abs_spec (x - y)); nia. Qed.

Lemma sgn_mul_abs : forall x, Z.sgn x * x = Z.abs x.
Proof. intros. destruct x; reflexivity. Qed.

(* one truncating division: sizes add up, q has the sign of u v, r the sign of u *)
Lemma quot_rem_signs : forall u v, v <> 0 ->
  let q := Z.quot u v in let r := Z.rem u v in
  Z.abs u = Z.abs q * Z.abs v + Z.abs r /\ 0 <= q * (u * v) /\ 0 <= (v * r) * (u * v) /\
  (u * v = 0 -> q = 0 /\ r = 0).
Proof.
  intros u v Hv q r. subst q r. split; [|split; [|split]].
  - assert (H := Z.quot_rem' (Z.abs u) (Z.abs v)).
    rewrite Z.quot_abs, Z.rem_abs in H by auto. lia.
  - rewrite (Z.quot_div u v Hv).
    replace (Z.sgn u * Z.sgn v * (Z.abs u / Z.abs v) * (u * v))
      with ((Z.abs u / Z.abs v) * ((Z.sgn u * u) * (Z.sgn v * v))) by ring.
    rewrite !sgn_mul_abs. apply Z.mul_nonneg_nonneg; [apply Z.div_pos; lia|]. apply Z.mul_nonneg_nonneg; lia.
  - replace (v * Z.rem u v * (u * v)) with ((v * v) * (Z.rem u v * u)) by ring.
    apply Z.mul_nonneg_nonneg; [apply Z.square_nonneg|apply Z.rem_sign_mul; auto].
  - intros H0. assert (u = 0) by nia. subst u. rewrite Z.quot_0_l, Z.rem_0_l by auto. auto.
Qed.

(* One cofactor sequence (the s's or the t's; both obey c' = c - q * c'') beside the remainders: the classical
   invariant |tr| |nc| + |nr| |tc| = C on absolute values, and consecutive cofactors of opposite sign. *)
Definition cofinv (C tr nr tc nc : Z) : Prop :=
  Z.abs tr * Z.abs nc + Z.abs nr * Z.abs tc = C /\ tc * nc * (tr * nr) <= 0.

Lemma cofinv_step : forall C tr nr tc nc, nr <> 0 -> cofinv C tr nr tc nc ->
  cofinv C nr (Z.rem tr nr) nc (tc - Z.quot tr nr * nc).
Proof.
  intros C tr nr tc nc Hnz [A S].
  destruct (quot_rem_signs tr nr Hnz) as (F7 & F4 & F6 & F0).
  set (q := Z.quot tr nr) in *. set (r := Z.rem tr nr) in *.
  assert (Hs : tc * (q * nc) <= 0).
  { replace (tc * (q * nc)) with ((tc * nc) * q) by ring. apply (sign_l1 _ (tr * nr)); auto. intros Hz; apply F0; auto. }
  split.
  - rewrite (abs_sub_opp tc (q * nc) Hs), Z.abs_mul, <- A, F7. ring.
  - replace (nc * (tc - q * nc) * (nr * r)) with ((tc * nc - q * (nc * nc)) * (nr * r)) by ring.
    apply (sign_l2 _ (tr * nr)); auto; [apply Z.square_nonneg|]. intros Hz. destruct (F0 Hz) as [_ ->]. ring.
Qed.

(* when the last quotient q is at least 2 in absolute value, the invariant gives the classical bound *)
Lemma two_turn_bound : forall C tr nr tc nc q,
  Z.abs tr = Z.abs q * Z.abs nr -> Z.abs nr < Z.abs tr -> cofinv C tr nr tc nc -> 2 * Z.abs nr * Z.abs nc <= C.
Proof.
  intros C tr nr tc nc q F7 Hlt [A _].
  assert (H0 := Z.abs_nonneg nr). assert (H1 := Z.abs_nonneg nc). assert (H2 := Z.abs_nonneg tc).
  assert (H3 := Z.abs_nonneg q).
  set (Q := Z.abs q) in *. set (NR := Z.abs nr) in *. set (NC := Z.abs nc) in *. set (TC := Z.abs tc) in *.
  set (TR := Z.abs tr) in *. clearbody Q NR NC TC TR.
  assert (Hq2 : 2 <= Q).
  { destruct (Z_le_gt_dec 2 Q); auto. exfalso. assert (Hc : Q = 0 \/ Q = 1) by lia. destruct Hc; subst Q; lia. }
  assert (E1 : 0 <= (Q - 2) * (NR * NC)) by (apply Z.mul_nonneg_nonneg; [lia|apply Z.mul_nonneg_nonneg; lia]).
  assert (E2 : 0 <= NR * TC) by (apply Z.mul_nonneg_nonneg; lia).
  subst TR C. lia.
Qed.

Section Normalisation.
  Variables a b : Z.

  Definition ninv (s : gst) : Prop :=
    cofinv (Z.abs b) (g_tr s) (g_nr s) (g_ts s) (g_ns s) /\ cofinv (Z.abs a) (g_tr s) (g_nr s) (g_tt s) (g_nt s).

  Lemma ninv_init : (a <> 0 \/ b <> 0) -> ninv (gcdext_init a b).
  Proof.
    intros H. unfold ninv, cofinv, gcdext_init; cbn [g_ts g_tt g_tr g_ns g_nt g_nr].
    destruct ((a =? 0) && (b =? 0)) eqn:E; [lia|]. repeat split; lia.
  Qed.

  Lemma ninv_step : forall s s', ninv s -> gcdext_step s = inl s' -> ninv s'.
  Proof.
    intros s s' [Ns Nt] H. apply gcdext_step_inl in H. destruct H as [Hnz ->].
    unfold ninv; cbn [g_ts g_tt g_tr g_ns g_nt g_nr]. split; apply cofinv_step; assumption.
  Qed.

  (* history: a state remembers whether it is the initial one, its successor, or a later one *)
  Definition linv (s : gst) : Prop := ginv a b s /\ ninv s.
  Definition hist (s : gst) : Prop :=
    s = gcdext_init a b \/
    exists p, linv p /\ gcdext_step p = inl s /\ (p = gcdext_init a b \/ Z.abs (g_nr p) < Z.abs (g_tr p)).
  Definition hinv (s : gst) : Prop := linv s /\ hist s.

  Lemma hinv_init : (a <> 0 \/ b <> 0) -> hinv (gcdext_init a b).
  Proof. intros H. split; [split; [apply ginv_init | apply ninv_init; auto] | left; reflexivity]. Qed.

  Lemma hinv_step : forall s s', hinv s -> gcdext_step s = inl s' -> hinv s'.
  Proof.
    intros s s' [[G N] Hh] Hstep. split.
    - split; [eapply ginv_step; eauto | eapply ninv_step; eauto].
    - right. exists s. split; [split; auto|]. split; auto.
      destruct Hh as [->|(p & _ & Hp & _)]; [left; reflexivity|right].
      apply gcdext_step_inl in Hp. destruct Hp as [Hnz ->]. cbn [g_tr g_nr].
      apply Z.rem_bound_abs; auto.
  Qed.

  (* the exit state: no turn (b = 0), one turn (b divides a), or at least two turns with the classical bounds *)
  Lemma hinv_exit : forall sf, hinv sf -> g_nr sf = 0 ->
    sf = gcdext_init a b \/
    (b <> 0 /\ a = b * Z.quot a b /\ g_tr sf = b /\ g_ts sf = 0 /\ g_tt sf = 1) \/
    (2 * Z.abs (g_tr sf) * Z.abs (g_ts sf) <= Z.abs b /\ 2 * Z.abs (g_tr sf) * Z.abs (g_tt sf) <= Z.abs a).
  Proof.
    intros sf [_ [Hinit|(p & [_ PN] & Hstep & Hpred)]] Hz; [left; exact Hinit|right].
    apply gcdext_step_inl in Hstep. destruct Hstep as [Hpnz ->]. cbn [g_ts g_tt g_tr g_nr] in *.
    destruct Hpred as [->|Hlt]; [left|right].
    - cbn [gcdext_init g_tr g_nr g_ns g_nt] in *. assert (H := Z.quot_rem' a b). repeat split; auto; lia.
    - destruct PN as [Ns Nt].
      destruct (quot_rem_signs (g_tr p) (g_nr p) Hpnz) as (F7 & _).
      rewrite Hz, Z.add_0_r in F7. split; eapply two_turn_bound; eassumption.
  Qed.
End Normalisation.

Lemma mul_eq_1_abs : forall x y, x * y = 1 -> Z.abs x = 1.
Proof. intros x y H. destruct (Z.eq_mul_1 x y H); lia. Qed.

Lemma cofactor_core : forall A B s t, s * A + t * B = 1 -> 2 * Z.abs s <= Z.abs B -> 2 * Z.abs t <= Z.abs A ->
  if Z.abs B =? 2 then s = Z.sgn A else 2 * Z.abs s < Z.abs B.
Proof.
  intros A B s t He Hs Ht. destruct (Z.abs B =? 2) eqn:HB; [apply Z.eqb_eq in HB|apply Z.eqb_neq in HB].
  - (* s is 0 or +-1 and s A = 1 - t B with |t B| <= |A|: s A cannot be 0 or -|A| *)
    assert (HX : Z.abs (t * B) = 2 * Z.abs t) by (rewrite Z.abs_mul; lia).
    set (X := t * B) in *. clearbody X.
    assert (Hs1 : s = 0 \/ s = 1 \/ s = -1) by lia. destruct Hs1 as [->|[->| ->]]; lia.
  - (* otherwise B = +-2s, s | 1, |B| = 2 *)
    destruct (Z_lt_le_dec (2 * Z.abs s) (Z.abs B)) as [|Hge]; auto. exfalso.
    assert (HBs : B = 2 * s \/ B = - (2 * s)) by lia.
    assert (Hs1 : Z.abs s = 1).
    { destruct HBs as [HBs|HBs]; subst B.
      - apply (mul_eq_1_abs s (A + 2 * t)). lia.
      - apply (mul_eq_1_abs s (A - 2 * t)). lia. }
    lia.
Qed.

Lemma cofactor_nondeg : forall A B s t, s * A + t * B = 1 -> 2 * Z.abs s <= Z.abs B -> 2 * Z.abs t <= Z.abs A ->
  A <> 0 /\ B <> 0 /\ Z.abs A <> Z.abs B.
Proof.
  intros A B s t He Hs Ht.
  assert (HA0 : A <> 0).
  { intros ->. assert (t = 0) by lia. subst. lia. }
  assert (HB0 : B <> 0).
  { intros ->. assert (s = 0) by lia. subst. lia. }
  split; auto. split; auto. intros Heq.
  assert (HA1 : Z.abs A = 1).
  { assert (HAB : A = B \/ A = - B) by lia. destruct HAB as [->| ->].
    - apply (mul_eq_1_abs B (s + t)). lia.
    - replace (Z.abs (- B)) with (Z.abs B) by lia. apply (mul_eq_1_abs B (t - s)). lia. }
  assert (s = 0) by lia. assert (t = 0) by lia. subst. lia.
Qed.

Lemma eqb_mul_r : forall x y g, 0 < g -> (x * g =? y * g) = (x =? y).
Proof.
  intros x y g Hg. destruct (x =? y) eqn:E.
  - apply Z.eqb_eq in E. subst. apply Z.eqb_refl.
  - apply Z.eqb_neq. apply Z.eqb_neq in E. intros H. apply E. apply (Z.mul_reg_r _ _ g); lia.
Qed.

(* the documented normalisation of (a, b) is that of the coprime pair (a/g, b/g) *)
Lemma spec_scale : forall A B g s t, 0 < g ->
  gmp_gcdext_spec (A * g) (B * g) g s t <-> gmp_gcdext_spec A B 1 s t.
Proof.
  intros A B g s t Hg. unfold gmp_gcdext_spec.
  rewrite Z.gcd_mul_mono_r_nonneg, !Z.abs_mul, !Z.sgn_mul, (Z.abs_eq g), (Z.sgn_pos g), !Z.mul_1_r by lia.
  rewrite (eqb_mul_r (Z.abs A)), (eqb_mul_r (Z.abs B) 2), (eqb_mul_r (Z.abs A) 2) by auto.
  replace (B * g =? 0) with (B =? 0) by (rewrite <- (eqb_mul_r B 0 g) by auto; reflexivity).
  replace (A * g =? 0) with (A =? 0) by (rewrite <- (eqb_mul_r A 0 g) by auto; reflexivity).
  assert (E1 : g = Z.gcd A B * g <-> 1 = Z.gcd A B) by nia.
  assert (E2 : s * (A * g) + t * (B * g) = g <-> s * A + t * B = 1) by nia.
  assert (E3 : forall x y, 2 * g * x < y * g <-> 2 * x < y) by (intros; nia).
  destruct (Z.abs A =? Z.abs B), ((B =? 0) || (Z.abs B =? 2)), ((A =? 0) || (Z.abs A =? 2));
    rewrite E1, E2, ?E3; reflexivity.
Qed.

Lemma weak_to_spec_coprime : forall A B s t, s * A + t * B = 1 -> 2 * Z.abs s <= Z.abs B -> 2 * Z.abs t <= Z.abs A ->
  gmp_gcdext_spec A B 1 s t.
Proof.
  intros A B s t He Hs Ht. destruct (cofactor_nondeg A B s t He Hs Ht) as (HA0 & HB0 & Hne).
  unfold gmp_gcdext_spec. split; [symmetry; apply Z.bezout_1_gcd; exists s, t; exact He|]. split; [exact He|].
  replace (Z.abs A =? Z.abs B) with false by lia. replace (B =? 0) with false by lia.
  replace (A =? 0) with false by lia. cbn [orb]. change (2 * 1) with 2.
  split; [exact (cofactor_core A B s t He Hs Ht) | apply (cofactor_core B A t s); auto; lia].
Qed.

Lemma weak_to_spec : forall a b g s t, g = Z.gcd a b -> 0 < g -> s * a + t * b = g ->
  2 * g * Z.abs s <= Z.abs b -> 2 * g * Z.abs t <= Z.abs a -> gmp_gcdext_spec a b g s t.
Proof.
  intros a b g s t Hg Hg0 Hbez Hs Ht.
  destruct (Z.gcd_divide_l a b) as [A HA]. destruct (Z.gcd_divide_r a b) as [B HB]. rewrite <- Hg in HA, HB.
  subst a b. apply spec_scale; auto. rewrite !Z.abs_mul, (Z.abs_eq g) in Hs, Ht by lia.
  apply weak_to_spec_coprime; [apply (Z.mul_reg_r _ _ g) | apply (Z.mul_le_mono_pos_r _ _ g) | apply (Z.mul_le_mono_pos_r _ _ g)]; lia.
Qed.

Lemma spec_b_zero : forall a, a <> 0 -> gmp_gcdext_spec a 0 (Z.abs a) (Z.sgn a) 0.
Proof.
  intros a Ha. unfold gmp_gcdext_spec. rewrite Z.gcd_0_r. split; auto. split; [rewrite sgn_mul_abs; lia|].
  replace (Z.abs a =? Z.abs 0) with false by lia. cbn [Z.eqb orb].
  split; auto. replace ((a =? 0) || (Z.abs a =? 2 * Z.abs a)) with false by lia. lia.
Qed.

Lemma spec_b_divides : forall a b q, b <> 0 -> a = b * q -> gmp_gcdext_spec a b (Z.abs b) 0 (Z.sgn b).
Proof.
  intros a b q Hb Ha. unfold gmp_gcdext_spec.
  assert (Hg : Z.gcd a b = Z.abs b).
  { subst a. rewrite Z.gcd_comm. rewrite <- Z.gcd_abs_l. apply Z.divide_gcd_iff; [lia|].
    exists (q * Z.sgn b). rewrite <- Z.mul_assoc, (Z.mul_comm (Z.sgn b)), Z.abs_sgn. ring. }
  split; auto. split; [rewrite sgn_mul_abs; lia|].
  assert (Habs : Z.abs a = Z.abs q * Z.abs b) by (subst a; rewrite Z.abs_mul; ring).
  destruct (Z.abs a =? Z.abs b) eqn:E; [auto|].
  split.
  - replace ((b =? 0) || (Z.abs b =? 2 * Z.abs b)) with false by lia. lia.
  - destruct ((a =? 0) || (Z.abs a =? 2 * Z.abs b)) eqn:E2; auto.
    assert (Hq : 3 <= Z.abs q).
    { destruct (Z_le_gt_dec 3 (Z.abs q)); auto. exfalso.
      assert (Hc : Z.abs q = 0 \/ Z.abs q = 1 \/ Z.abs q = 2) by lia.
      destruct Hc as [Hc|[Hc|Hc]]; rewrite Hc in Habs; lia. }
    replace (Z.abs (Z.sgn b)) with 1 by (destruct b; cbn; lia). rewrite Habs. clear - Hq Hb. assert (0 < Z.abs b) by lia. nia.
Qed.

Theorem gcdext_spec : forall a b, exists g s t,
  mp_gcdext a b = Ok (g, s, t) /\ gmp_gcdext_spec a b g s t.
Proof.
  intros a b. assert (Hc : a = 0 /\ b = 0 \/ (a <> 0 \/ b <> 0)) by lia. destruct Hc as [[-> ->]|Hnz].
  { exists 0, 0, 0. split; [reflexivity|]. unfold gmp_gcdext_spec. cbn. auto. }
  destruct (gcdext_loop_total a b (hinv a b) (hinv_step a b) (hinv_init a b Hnz)) as (sf & Hsf & Hinv & Hz).
  assert (Hshape := hinv_exit a b sf Hinv Hz).
  destruct Hinv as [[[[L1 _] G] _] _]. rewrite Hz, Z.gcd_0_r in G.
  assert (Hg0 : 0 < Z.gcd a b) by (assert (H := Z.gcd_nonneg a b); assert (H' := Z.gcd_eq_0 a b); lia).
  unfold mp_gcdext. rewrite Hsf. cbn [bind].
  (* the sign repair multiplies the three components by sg = +-1 *)
  set (sg := if g_tr sf <? 0 then -1 else 1).
  assert (Hsg : sg = 1 /\ 0 < g_tr sf \/ sg = -1 /\ g_tr sf < 0) by (unfold sg; destruct (g_tr sf <? 0) eqn:E; lia).
  exists (g_tr sf * sg), (g_ts sf * sg), (g_tt sf * sg). split.
  { unfold sg. destruct (g_tr sf <? 0); [reflexivity|]. rewrite !Z.mul_1_r. reflexivity. }
  clearbody sg.
  assert (Hg : g_tr sf * sg = Z.abs (g_tr sf)) by (clear - Hsg; destruct Hsg as [[-> ?]|[-> ?]]; lia).
  assert (Hone : 1 * sg = Z.sgn (g_tr sf)) by (clear - Hsg; lia).
  rewrite Hg. destruct Hshape as [Hinit|[(Hb & Hdiv & Htr & Hts & Htt)|[W1 W2]]].
  - rewrite Hinit in *. cbn [gcdext_init g_ts g_tt g_tr g_nr] in *. subst b.
    replace ((a =? 0) && (0 =? 0)) with false by lia. rewrite Hone. apply spec_b_zero; lia.
  - rewrite Htr, Hts, Htt in *. rewrite Hone. eapply spec_b_divides; eauto.
  - assert (Habs : forall x, Z.abs (x * sg) = Z.abs x) by (clear - Hsg; intros x; destruct Hsg as [[-> _]|[-> _]]; lia).
    apply weak_to_spec; rewrite ?Habs; [lia | lia | rewrite <- Hg, <- L1; ring | exact W1 | exact W2].
Qed.

Lemma small_multiple_zero : forall B d, (B | d) -> Z.abs d < Z.abs B -> d = 0.
Proof.
  intros B d [k Hk] Hlt. subst d. rewrite Z.abs_mul in Hlt.
  destruct (Z.eq_dec k 0) as [->|Hk0]; [ring|]. exfalso.
  assert (1 <= Z.abs k) by lia. assert (0 <= Z.abs B) by lia. nia.
Qed.

Lemma cofactor_unique_core : forall A B s t s' t', s * A + t * B = 1 -> s' * A + t' * B = 1 ->
  2 * Z.abs s < Z.abs B -> 2 * Z.abs s' < Z.abs B -> s = s'.
Proof.
  intros A B s t s' t' H1 H2 Hs Hs'.
  assert (Hrp : rel_prime B A).
  { apply bezout_rel_prime. apply (Bezout_intro B A 1 t s). lia. }
  assert (Hdiv : (B | (s - s') * A)).
  { exists (t' - t). lia. }
  rewrite Z.mul_comm in Hdiv. apply Gauss in Hdiv; [|exact Hrp].
  assert (s - s' = 0); [|lia]. apply (small_multiple_zero B); auto. lia.
Qed.

Lemma spec_unique_coprime : forall A B s t s' t',
  gmp_gcdext_spec A B 1 s t -> gmp_gcdext_spec A B 1 s' t' -> s = s' /\ t = t'.
Proof.
  intros A B s t s' t' (_ & He & Hn) (_ & He' & Hn'). change (2 * 1) with 2 in Hn, Hn'.
  destruct (Z.abs A =? Z.abs B). { destruct Hn as [-> ->], Hn' as [-> ->]. auto. }
  destruct Hn as [Hs Ht], Hn' as [Hs' Ht']. split.
  - destruct ((B =? 0) || (Z.abs B =? 2)); [congruence|].
    exact (cofactor_unique_core A B s t s' t' He He' Hs Hs').
  - destruct ((A =? 0) || (Z.abs A =? 2)); [congruence|].
    apply (cofactor_unique_core B A t s t' s'); auto; lia.
Qed.

(* "these relations define s and t uniquely" (GMP manual): two triples that satisfy the documented specification
   of mpz_gcdext are equal -- so a backend whose gcd_ext satisfies it returns what GMP returns *)
Theorem gcdext_spec_unique : forall a b g s t g' s' t',
  gmp_gcdext_spec a b g s t -> gmp_gcdext_spec a b g' s' t' -> g = g' /\ s = s' /\ t = t'.
Proof.
  intros a b g s t g' s' t' H H'.
  assert (Hg : g = Z.gcd a b) by apply H. assert (Hg' : g' = Z.gcd a b) by apply H'. subst g'. rewrite <- Hg in *.
  split; [reflexivity|]. destruct (Z.eq_dec g 0) as [Hz|Hnz].
  - rewrite Hz in Hg. symmetry in Hg. apply Z.gcd_eq_0 in Hg. destruct Hg; subst a b.
    destruct H as (_ & _ & Hn), H' as (_ & _ & Hn'). cbn in Hn, Hn'. lia.
  - assert (Hg0 : 0 < g) by (assert (Hp := Z.gcd_nonneg a b); lia).
    destruct (Z.gcd_divide_l a b) as [A HA]. destruct (Z.gcd_divide_r a b) as [B HB]. rewrite <- Hg in HA, HB.
    subst a b. apply spec_scale in H, H'; auto. eapply spec_unique_coprime; eauto.
Qed.
