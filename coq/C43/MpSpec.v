(* C43 -- specifications: the GMP-documented meaning of each function that mp_boost.cpp reimplements,
   stated with the schoolbook definitions of Coq's standard library. *)
From SE Require Import Base.Prelude C43.MpModel.
From Coq Require Import Lia ZifyBool Znumtheory.
Local Open Scope Z_scope.

(* boost::multiprecision::pow (square and multiply) is Z.pow *)
Lemma zpow_pos_spec : forall a p, zpow_pos a p = Z.pow a (Zpos p).
Proof.
  induction p; cbn [zpow_pos]; rewrite ?IHp.
  - rewrite Pos2Z.inj_xI, Z.pow_add_r, Z.pow_twice_r, Z.pow_1_r by lia. reflexivity.
  - rewrite Pos2Z.inj_xO, Z.pow_twice_r. reflexivity.
  - rewrite Z.pow_1_r. reflexivity.
Qed.
Lemma zpow_spec : forall a n, zpow a n = Z.pow a n.
Proof. destruct n; cbn [zpow]; auto using zpow_pos_spec. Qed.

(* mpz_fdiv_qr: q = floor(a/b), r = a - q*b has the sign of b.  Coq's Z.div / Z.modulo are exactly that. *)
Definition floor_div_spec (a b q r : Z) : Prop :=
  a = q * b + r /\ (0 <= r < b \/ b < r <= 0).
(* mpz_cdiv_qr: q = ceiling(a/b), r = a - q*b has the sign opposite to b *)
Definition ceil_div_spec (a b q r : Z) : Prop :=
  a = q * b + r /\ (- b < r <= 0 \/ 0 <= r < - b).
Definition trunc_div_spec (a b q r : Z) : Prop :=
  a = q * b + r /\ Z.abs r < Z.abs b /\ (r = 0 \/ Z.sgn r = Z.sgn a).

(* mpz_gcdext(g, s, t, a, b) as documented in the GMP manual: g = gcd(a,b) >= 0, a*s + b*t = g, and
   "s and t are chosen such that normally |s| < |b|/(2g) and |t| < |a|/(2g), and these relations define s and t
   uniquely.  There are a few exceptional cases: if |a| = |b| then s = 0, t = sgn(b).  Otherwise s = sgn(a) if
   b = 0 or |b| = 2g, and t = sgn(b) if a = 0 or |a| = 2g." *)
Definition gmp_gcdext_spec (a b g s t : Z) : Prop :=
  g = Z.gcd a b /\ s * a + t * b = g /\
  (if Z.abs a =? Z.abs b then s = 0 /\ t = Z.sgn b
   else (if (b =? 0) || (Z.abs b =? 2 * g) then s = Z.sgn a else 2 * g * Z.abs s < Z.abs b) /\
        (if (a =? 0) || (Z.abs a =? 2 * g) then t = Z.sgn b else 2 * g * Z.abs t < Z.abs a)).

(* mpz_invert(r, a, m), m <> 0: succeeds iff gcd(a, m) = 1; then 0 <= r < |m| and a*r = 1 (mod m) *)
Definition gmp_invert_spec (a m : Z) (o : option Z) : Prop :=
  match o with
  | None => Z.gcd a m <> 1
  | Some r => Z.gcd a m = 1 /\ 0 <= r < Z.abs m /\ (m | a * r - 1)
  end.

(* mpz_root(r, i, n): r = the truncated integer part of the n-th root of i; returns whether r^n = i *)
Definition trunc_root_spec (i n r : Z) (exact : bool) : Prop :=
  (0 <= i -> 0 <= r /\ r ^ n <= i < (r + 1) ^ n) /\
  (i < 0 -> r <= 0 /\ (- r) ^ n <= - i < (- r + 1) ^ n) /\
  (exact = true <-> r ^ n = i).

Definition perfect_power (i : Z) : Prop := exists a k, 2 <= k /\ a ^ k = i.
Definition perfect_square (i : Z) : Prop := exists a, a * a = i.

(* Fibonacci and Lucas numbers *)
Fixpoint fibn (n : nat) : Z :=
  match n with
  | O => 0
  | S n' => match n' with O => 1 | S n'' => fibn n'' + fibn n' end
  end.
Fixpoint lucn (n : nat) : Z :=
  match n with
  | O => 2
  | S n' => match n' with O => 1 | S n'' => lucn n'' + lucn n' end
  end.

(* binomial coefficients by Pascal's rule; mpz_bin_ui extends them to negative n by bin(-n,k) = (-1)^k bin(n+k-1,k) *)
Fixpoint binom (n k : nat) : Z :=
  match k with
  | O => 1
  | S k' => match n with O => 0 | S n' => binom n' k' + binom n' k end
  end.
Definition gmp_bin (n : Z) (k : nat) : Z :=
  if 0 <=? n then binom (Z.to_nat n) k
  else (if Nat.even k then 1 else -1) * binom (Z.to_nat (- n) + k - 1) k.

(* lowest set bit *)
Definition lowest_bit_spec (i : Z) (k : N) : Prop :=
  (2 ^ Z.of_N k | i) /\ ~ (2 ^ (Z.of_N k + 1) | i).

(* least prime above i *)
Definition next_prime_spec (i p : Z) : Prop :=
  i < p /\ prime p /\ forall q, i < q < p -> ~ prime q.
