(* C43 -- Jacobi / Kronecker symbols (unchecked_jacobi, mp_jacobi, mp_kronecker):
   the reciprocity recursion terminates within the model's fuel, its value lies in {-1,0,1}, it equals any function
   that satisfies the standard laws of the Jacobi symbol, and for every odd denominator below 100 it equals the symbol
   computed from the definition (factorisation + Legendre symbols by listing squares); the Kronecker symbol follows
   from the Jacobi symbol of the odd part of the denominator. *)
From SE Require Import Base.Prelude C43.MpModel C43.MpSpec.
From Coq Require Import Lia ZifyBool Znumtheory Zpow_facts.
Local Open Scope Z_scope.

Lemma bfmod_spec : forall a n, 0 < n -> bfmod a n = Ok (a mod n).
Proof.
  intros a n Hn. unfold bfmod, brem. destruct (n =? 0) eqn:E; [lia|]. cbn [bind]. f_equal.
  assert (Hq := Z.quot_rem' a n). assert (Hb := Z.rem_bound_abs a n ltac:(lia)).
  destruct (Z.rem a n <? 0) eqn:E2.
  - apply (Z.mod_unique_pos a n (Z.quot a n - 1)); lia.
  - apply (Z.mod_unique_pos a n (Z.quot a n)); lia.
Qed.

(* strip_twos: num = odd part * 2^k, with the parity of k *)
Lemma strip_twos_pos_spec : forall p acc q b, strip_twos_pos p acc = (q, b) ->
  exists k, 0 <= k /\ Zpos p = Zpos q * 2 ^ k /\ Zpos q mod 2 = 1 /\ b = xorb acc (Z.odd k).
Proof.
  induction p; intros acc q b H; cbn [strip_twos_pos] in H.
  - inversion H; subst. exists 0. split; [lia|]. split; [lia|]. split; [Z.div_mod_to_equations; lia|].
    destruct b; reflexivity.
  - apply IHp in H. destruct H as (k & Hk & He & Ho & Hb). exists (k + 1).
    split; [lia|]. split; [rewrite Z.pow_add_r by lia; lia|]. split; auto.
    rewrite Hb, Z.add_1_r, Z.odd_succ, <- Z.negb_odd. destruct acc, (Z.odd k); reflexivity.
  - inversion H; subst. exists 0. repeat split; try lia. destruct b; reflexivity.
Qed.

Lemma strip_twos_spec : forall num, 0 < num ->
  exists m k, strip_twos num = (m, Z.odd k) /\ 0 <= k /\ num = m * 2 ^ k /\ m mod 2 = 1 /\ 0 < m <= num.
Proof.
  intros num Hn. destruct num as [|p|p]; try lia. cbn [strip_twos].
  destruct (strip_twos_pos p false) as [q b] eqn:E. apply strip_twos_pos_spec in E.
  destruct E as (k & Hk & He & Ho & ->). rewrite Bool.xorb_false_l. exists (Zpos q), k. split; [reflexivity|].
  assert (0 < 2 ^ k) by (apply Z.pow_pos_nonneg; lia). repeat split; auto; nia.
Qed.

Lemma strip_twos_0 : strip_twos 0 = (0, false).
Proof. reflexivity. Qed.

Local Open Scope res_scope.

Lemma uj_step : forall f a n, 0 < n -> unchecked_jacobi (S f) a n =
  if a =? 1 then Ok 1
  else
    let st := strip_twos (a mod n) in
    let pt := if snd st && ((n mod 8 =? 3) || (n mod 8 =? 5)) then -1 else 1 in
    if fst st =? 1 then Ok pt
    else if negb (Z.gcd (fst st) n =? 1) then Ok 0
    else
      do rest <- unchecked_jacobi f n (fst st);
      Ok (pt * (if (fst st mod 4 =? 3) && (n mod 4 =? 3) then -1 else 1) * rest).
Proof.
  intros f a n Hn. cbn [unchecked_jacobi]. rewrite !bfmod_spec by lia. cbn [bind].
  rewrite !bfmod_spec by lia. reflexivity.
Qed.

Lemma uj_zero : forall f a n, 0 < n -> a mod n = 0 ->
  unchecked_jacobi (S (S f)) a n = Ok (if n =? 1 then 1 else 0).
Proof.
  intros f a n Hn Hz. rewrite uj_step, Hz, strip_twos_0 by auto. cbn [fst snd andb]. cbv zeta.
  rewrite Z.gcd_0_l, Z.abs_eq by lia. destruct (n =? 1) eqn:E1.
  - assert (n = 1) by lia. subst n. destruct (a =? 1); reflexivity.
  - destruct (a =? 1) eqn:Ea; [|reflexivity]. assert (a = 1) by lia. subst a. rewrite Z.mod_1_l in Hz; lia.
Qed.

Lemma sign_mul_range : forall x y, -1 <= x <= 1 -> -1 <= y <= 1 -> -1 <= x * y <= 1.
Proof. intros. nia. Qed.

(* each turn swaps (a mod n, n) to (n mod num, num) with num <= a mod n < n, which at least halves the product *)
Lemma uj_total : forall f a n, 0 < n -> (a mod n) * n < 2 ^ Z.of_nat f ->
  exists r, unchecked_jacobi (S (S f)) a n = Ok r /\ -1 <= r <= 1.
Proof.
  assert (Hzero : forall f a n, 0 < n -> a mod n = 0 ->
            exists r, unchecked_jacobi (S (S f)) a n = Ok r /\ -1 <= r <= 1).
  { intros f a n Hn Hz. rewrite uj_zero by auto. eexists. split; [reflexivity|]. destruct (n =? 1); lia. }
  induction f; intros a n Hn Hm; assert (Hb := Z.mod_pos_bound a n Hn).
  - apply Hzero; auto. change (2 ^ Z.of_nat 0) with 1 in Hm. nia.
  - destruct (Z.eq_dec (a mod n) 0) as [Hz|Hnz]; [apply Hzero; auto|].
    rewrite uj_step by auto. cbv zeta. destruct (a =? 1); [exists 1; split; [reflexivity|lia]|].
    destruct (strip_twos_spec (a mod n) ltac:(lia)) as (num & k & -> & Hk & He & Ho & Hr). cbn [fst snd].
    set (pt := if Z.odd k && _ then -1 else 1).
    assert (Hpt : -1 <= pt <= 1) by (subst pt; destruct (Z.odd k && _); lia).
    destruct (num =? 1); [exists pt; split; [reflexivity|lia]|].
    destruct (negb (Z.gcd num n =? 1)); [exists 0; split; [reflexivity|lia]|].
    set (qr := if (num mod 4 =? 3) && _ then -1 else 1).
    assert (Hqr : -1 <= qr <= 1) by (subst qr; destruct ((num mod 4 =? 3) && _); lia).
    destruct (IHf n num) as (r & -> & Hrr); [lia| |].
    + assert (Hmn := Z.mod_pos_bound n num ltac:(lia)).
      assert (Hdm := Z.div_mod n num ltac:(lia)).
      assert (Hq : 1 <= n / num) by (apply Z.div_le_lower_bound; lia).
      rewrite Nat2Z.inj_succ, Z.pow_succ_r in Hm by lia. nia.
    + exists (pt * qr * r). split; [reflexivity|]. auto using sign_mul_range.
Qed.

Lemma jacobi_fuel_eq : forall n, jacobi_fuel n = S (S (Z.to_nat (2 * Z.log2 (Z.abs n) + 4))).
Proof. intros n. unfold jacobi_fuel. assert (H := Z.log2_nonneg (Z.abs n)). lia. Qed.

Lemma jacobi_fuel_enough : forall a n, 0 < n ->
  exists r, unchecked_jacobi (jacobi_fuel n) a n = Ok r /\ -1 <= r <= 1.
Proof.
  intros a n Hn. rewrite jacobi_fuel_eq, Z.abs_eq by lia. assert (Hl := Z.log2_nonneg n).
  apply uj_total; auto. rewrite Z2Nat.id by lia.
  assert (Hs := Z.log2_spec n Hn). assert (Hb := Z.mod_pos_bound a n Hn).
  replace (2 * Z.log2 n + 4) with (Z.succ (Z.log2 n) + Z.succ (Z.log2 n) + 2) by lia.
  rewrite !Z.pow_add_r by lia. change (2 ^ 2) with 4. nia.
Qed.

(* mp_jacobi is total on its domain (n odd, positive) with values in {-1,0,1}; outside it throws *)
Theorem jacobi_total : forall a n, 0 < n -> Z.rem n 2 <> 0 ->
  exists r, mp_jacobi a n = Ok r /\ -1 <= r <= 1.
Proof.
  intros a n Hn Ho. unfold mp_jacobi. destruct (n <? 0) eqn:E; [lia|].
  destruct (Z.rem n 2 =? 0) eqn:E2; [lia|]. apply jacobi_fuel_enough; auto.
Qed.

Definition oddpos (n : Z) : Prop := 0 < n /\ n mod 2 = 1.

Lemma m1_pow : forall k, 0 <= k -> (-1) ^ k = if Z.odd k then -1 else 1.
Proof.
  apply (natlike_ind (fun k => (-1) ^ k = if Z.odd k then -1 else 1)); [reflexivity|].
  intros j Hj IH. rewrite Z.pow_succ_r, IH, Z.odd_succ, <- Z.negb_odd by lia.
  destruct (Z.odd j); reflexivity.
Qed.

Definition kron_u (a n : Z) : Z := if (n <? 0) && (a <? 0) then -1 else 1.
Definition kron_2 (a : Z) : Z :=
  if a mod 2 =? 0 then 0 else if (a mod 8 =? 1) || (a mod 8 =? 7) then 1 else -1.

Lemma rem2_zero_iff : forall a, (Z.rem a 2 =? 0) = (a mod 2 =? 0).
Proof.
  intros a. assert (H := Z.quot_rem' a 2). assert (Hb := Z.rem_bound_abs a 2 ltac:(lia)).
  destruct (Z.rem a 2 =? 0) eqn:E; destruct (a mod 2 =? 0) eqn:E2; try reflexivity; Z.div_mod_to_equations; lia.
Qed.

Lemma kronecker_of_jacobi : forall a n, n <> 0 ->
  exists j m, 0 <= j /\ Z.abs n = m * 2 ^ j /\ oddpos m /\
    forall r, mp_jacobi a m = Ok r -> mp_kronecker a n = Ok (kron_u a n * kron_2 a ^ j * r).
Proof.
  intros a n Hn. unfold mp_kronecker. destruct (n =? 0) eqn:E0; [lia|].
  destruct (strip_twos_spec (Z.abs n) ltac:(lia)) as (m & k & -> & Hk & He & Ho & Hr). cbn [fst snd].
  exists k, m. split; auto. split; auto. split; [split; [lia|auto]|]. intros r Hj.
  rewrite bfmod_spec by lia. cbn [bind].
  unfold mp_jacobi in Hj. destruct (m <? 0); [discriminate|]. destruct (Z.rem m 2 =? 0); [discriminate|].
  rewrite Hj. cbn [bind]. fold (kron_u a n). rewrite !rem2_zero_iff.
  (* n even iff k >= 1 *)
  assert (Hpar : (n mod 2 =? 0) = negb (k =? 0)).
  { destruct (k =? 0) eqn:Ek; cbn [negb].
    - assert (k = 0) by lia. subst k. rewrite Z.pow_0_r in He. Z.div_mod_to_equations; lia.
    - assert (Hk1 : 2 ^ k = 2 * 2 ^ (k - 1)) by (rewrite <- Z.pow_succ_r by lia; f_equal; lia).
      Z.div_mod_to_equations; lia. }
  rewrite Hpar. unfold kron_2.
  destruct (k =? 0) eqn:Ek; cbn [negb].
  - assert (k = 0) by lia. subst k. rewrite Z.pow_0_r. f_equal. ring.
  - f_equal. destruct (a mod 2 =? 0) eqn:Ea; cbn [negb].
    + rewrite Z.pow_0_l by lia. ring.
    + destruct ((a mod 8 =? 1) || (a mod 8 =? 7)) eqn:E8.
      * rewrite Z.pow_1_l by lia. cbn. ring.
      * rewrite m1_pow by lia. change (-1 =? -1) with true. cbn [andb].
        destruct (Z.odd k); ring.
Qed.

Section JacobiLaws.
  (* any function with the textbook properties of the Jacobi symbol (a/n), n odd and positive *)
  Variable J : Z -> Z -> Z.
  Hypothesis J_periodic : forall a n, oddpos n -> J a n = J (a mod n) n.
  Hypothesis J_one : forall n, oddpos n -> J 1 n = 1.
  Hypothesis J_mul : forall a b n, oddpos n -> J (a * b) n = J a n * J b n.
  Hypothesis J_two : forall n, oddpos n -> J 2 n = if (n mod 8 =? 3) || (n mod 8 =? 5) then -1 else 1.
  Hypothesis J_reciprocity : forall a n, oddpos a -> oddpos n -> Z.gcd a n = 1 ->
    J a n = (if (a mod 4 =? 3) && (n mod 4 =? 3) then -1 else 1) * J n a.
  Hypothesis J_not_coprime : forall a n, oddpos n -> Z.gcd a n <> 1 -> J a n = 0.

  Lemma J_pow2 : forall n k, oddpos n -> 0 <= k -> J (2 ^ k) n = (J 2 n) ^ k.
  Proof.
    intros n k Hn. revert k. apply (natlike_ind (fun k => J (2 ^ k) n = J 2 n ^ k)).
    - rewrite !Z.pow_0_r. apply J_one; auto.
    - intros j Hj IH. rewrite !Z.pow_succ_r by lia. rewrite J_mul, IH by auto. reflexivity.
  Qed.

  Lemma J_zero_one : J 0 1 = 1.
  Proof.
    assert (H1 : oddpos 1) by (unfold oddpos; split; [lia|reflexivity]).
    rewrite <- (J_one 1 H1) at 2. rewrite (J_periodic 1 1 H1). reflexivity.
  Qed.

  (* the powers of two are pulled out of the numerator: (J 2 n)^k is the code's product_of_twos *)
  Lemma J_twos : forall num k n, oddpos n -> 0 <= k ->
    J (num * 2 ^ k) n = (if Z.odd k && ((n mod 8 =? 3) || (n mod 8 =? 5)) then -1 else 1) * J num n.
  Proof.
    intros num k n Hn Hk. rewrite J_mul, J_pow2, J_two by auto.
    destruct ((n mod 8 =? 3) || (n mod 8 =? 5)).
    - rewrite m1_pow by auto. destruct (Z.odd k); cbn [andb]; ring.
    - rewrite Z.pow_1_l by auto. rewrite Bool.andb_false_r. ring.
  Qed.

  Theorem uj_correct : forall fuel a n r, oddpos n -> unchecked_jacobi fuel a n = Ok r -> r = J a n.
  Proof.
    induction fuel; intros a n r Hn H; [discriminate|].
    assert (Hn0 : 0 < n) by apply Hn.
    rewrite uj_step in H by auto. cbv zeta in H. destruct (a =? 1) eqn:Ea.
    { inversion H; subst. assert (a = 1) by lia. subst. symmetry. apply J_one; auto. }
    rewrite (J_periodic a n Hn).
    assert (Hb := Z.mod_pos_bound a n Hn0).
    destruct (Z.eq_dec (a mod n) 0) as [Hz|Hnz].
    - rewrite Hz in *. rewrite strip_twos_0 in H. cbn [fst snd andb] in H.
      change (0 =? 1) with false in H. cbv iota in H. rewrite Z.gcd_0_l, Z.abs_eq in H by lia.
      destruct (n =? 1) eqn:En; cbn [negb] in H.
      + assert (n = 1) by lia. subst n. destruct fuel; [discriminate|]. inversion H; subst.
        rewrite J_zero_one. reflexivity.
      + inversion H; subst. symmetry. apply J_not_coprime; auto. rewrite Z.gcd_0_l. lia.
    - destruct (strip_twos_spec (a mod n) ltac:(lia)) as (num & k & Est & Hk & He & Ho & Hr).
      rewrite Est in H. cbn [fst snd] in H.
      assert (Hnum : oddpos num) by (split; lia).
      rewrite He at 1. rewrite J_twos by auto.
      set (pt := if Z.odd k && _ then -1 else 1) in *.
      destruct (num =? 1) eqn:E1.
      { inversion H; subst. assert (E : num = 1) by lia. rewrite E, J_one by auto. ring. }
      destruct (negb (Z.gcd num n =? 1)) eqn:Eg.
      { inversion H; subst. rewrite (J_not_coprime num n) by (auto; lia). ring. }
      destruct (unchecked_jacobi fuel n num) as [rest| | |] eqn:Hrec; cbn [bind] in H; try discriminate.
      inversion H; subst.
      apply IHfuel in Hrec; auto. subst rest.
      rewrite (J_reciprocity num n) by (auto; lia). ring.
  Qed.

  (* mp_jacobi computes J on its whole domain *)
  Theorem jacobi_spec_relative : forall a n, 0 < n -> Z.rem n 2 <> 0 -> mp_jacobi a n = Ok (J a n).
  Proof using J_periodic J_one J_mul J_two J_reciprocity J_not_coprime.
    intros a n Hn Ho. destruct (jacobi_total a n Hn Ho) as (r & Hr & _). rewrite Hr. f_equal.
    unfold mp_jacobi in Hr. destruct (n <? 0) eqn:E; [lia|]. destruct (Z.rem n 2 =? 0) eqn:E2; [lia|].
    apply uj_correct in Hr; auto. split; auto.
    rewrite Z.rem_mod_nonneg in Ho by lia. Z.div_mod_to_equations; lia.
  Qed.

  (* (a|n) = (a|u) (a|2)^j (a|m) for n = u 2^j m, m odd positive; (a|0) = 1 for a = +-1, else 0 *)
  Theorem kronecker_spec_relative : forall a n, n <> 0 ->
    exists j m, 0 <= j /\ Z.abs n = m * 2 ^ j /\ oddpos m /\
      mp_kronecker a n = Ok (kron_u a n * kron_2 a ^ j * J a m).
  Proof using J_periodic J_one J_mul J_two J_reciprocity J_not_coprime.
    intros a n Hn. destruct (kronecker_of_jacobi a n Hn) as (j & m & Hj & He & Hm & H).
    exists j, m. repeat split; auto; try apply Hm. apply H, jacobi_spec_relative; [apply Hm|].
    destruct Hm as [Hm Ho]. rewrite Z.rem_mod_nonneg by lia. lia.
  Qed.

  Theorem kronecker_zero : forall a, mp_kronecker a 0 = Ok (if (a =? 1) || (a =? -1) then 1 else 0).
  Proof. reflexivity. Qed.
End JacobiLaws.

Definition zrange (lo : Z) (len : nat) : list Z := map (fun k => lo + Z.of_nat k) (seq 0 len).
Lemma In_zrange : forall lo len x, lo <= x < lo + Z.of_nat len -> In x (zrange lo len).
Proof.
  intros lo len x H. unfold zrange. apply in_map_iff. exists (Z.to_nat (x - lo)). split; [lia|].
  apply in_seq. lia.
Qed.
Lemma forallb_zrange : forall f lo len, forallb f (zrange lo len) = true ->
  forall x, lo <= x < lo + Z.of_nat len -> f x = true.
Proof.
  intros f lo len H x Hx. exact (proj1 (forallb_forall f _) H x (In_zrange lo len x Hx)).
Qed.

(* Legendre symbol (a/p), p an odd prime, by listing the squares modulo p *)
Definition legendre_def (a p : Z) : Z :=
  if a mod p =? 0 then 0
  else if existsb (fun x => (x * x) mod p =? a mod p) (zrange 1 (Z.to_nat (p - 1))) then 1 else -1.
(* Jacobi symbol: factor n by trial division (d = 3, 5, 7, ...), multiply the Legendre symbols *)
Fixpoint jacobi_def_aux (fuel : nat) (a n d : Z) : Z :=
  match fuel with
  | O => 1
  | S f => if n <=? 1 then 1
           else if n mod d =? 0 then legendre_def a d * jacobi_def_aux f a (n / d) d
           else jacobi_def_aux f a n (d + 2)
  end.
Definition jacobi_def (a n : Z) : Z := jacobi_def_aux (Z.to_nat (2 * n)) a n 3.
Definition kronecker_def (a n : Z) : Z :=
  if n =? 0 then (if Z.abs a =? 1 then 1 else 0)
  else
    let j := Z.log2 (Z.gcd (Z.abs n) (2 ^ Z.log2 (Z.abs n))) in
    kron_u a n * kron_2 a ^ j * jacobi_def a (Z.abs n / 2 ^ j).

(* Both mp_jacobi a n and jacobi_def a n depend on a only through a mod n, so a table over 0 <= a < n decides each n. *)
Lemma uj_mod : forall f a n, 0 < n ->
  unchecked_jacobi (S (S f)) (a mod n) n = unchecked_jacobi (S (S f)) a n.
Proof.
  intros f a n Hn. destruct (Z.eq_dec (a mod n) 0) as [Hz|Hnz].
  - rewrite !uj_zero by (rewrite ?Z.mod_mod; lia). reflexivity.
  - assert (1 < n) by (destruct (Z.eq_dec n 1) as [->|]; [rewrite Z.mod_1_r in Hnz|]; lia).
    rewrite !uj_step, Z.mod_mod by lia. destruct (a =? 1) eqn:Ea.
    + assert (a = 1) by lia. subst a. rewrite Z.mod_1_l by lia. reflexivity.
    + destruct (a mod n =? 1) eqn:Em; [|reflexivity]. assert (E : a mod n = 1) by lia. rewrite E. reflexivity.
Qed.

Lemma mp_jacobi_mod : forall a n, 0 < n -> mp_jacobi (a mod n) n = mp_jacobi a n.
Proof. intros a n Hn. unfold mp_jacobi. rewrite jacobi_fuel_eq, uj_mod by auto. reflexivity. Qed.

Lemma jacobi_def_aux_mod : forall fuel a b n d, 0 < d ->
  (forall p, 0 < p -> (p | n) -> a mod p = b mod p) ->
  jacobi_def_aux fuel a n d = jacobi_def_aux fuel b n d.
Proof.
  induction fuel; intros a b n d Hd H; cbn [jacobi_def_aux]; [reflexivity|].
  destruct (n <=? 1); [reflexivity|]. destruct (n mod d =? 0) eqn:E.
  - apply Z.eqb_eq, Z.mod_divide in E; [|lia]. unfold legendre_def. rewrite (H d Hd E). f_equal.
    apply IHfuel; auto. intros p Hp Hpn. apply H; auto.
    apply Z.divide_trans with (1 := Hpn). exists d. destruct E as [q ->]. rewrite Z.div_mul by lia. apply Z.mul_comm.
  - apply IHfuel; auto; lia.
Qed.

Lemma jacobi_def_mod : forall a n, 0 < n -> jacobi_def (a mod n) n = jacobi_def a n.
Proof.
  intros a n Hn. apply jacobi_def_aux_mod; [lia|]. intros p Hp Hpn. symmetry. apply Zmod_div_mod; auto.
Qed.

Lemma jacobi_sweep :
  forallb (fun n => if n mod 2 =? 1 then
     forallb (fun a => match mp_jacobi a n with Ok r => r =? jacobi_def a n | _ => false end) (zrange 0 (Z.to_nat n))
     else true) (zrange 1 99) = true.
Proof. vm_compute. reflexivity. Qed.

(* for odd 0 < n < 100 and every a, mp_jacobi is the Jacobi symbol of the definition *)
Theorem jacobi_definition_small : forall n a, 0 < n < 100 -> n mod 2 = 1 -> mp_jacobi a n = Ok (jacobi_def a n).
Proof.
  intros n a Hn Ho. rewrite <- mp_jacobi_mod, <- jacobi_def_mod by lia.
  assert (Ha := Z.mod_pos_bound a n ltac:(lia)).
  (* jacobi_sweep is stated in the very form that forallb_zrange takes: no conversion for the kernel to redo *)
  assert (H := forallb_zrange _ _ _ jacobi_sweep n ltac:(lia)). cbv beta in H.
  rewrite Ho in H. change (1 =? 1) with true in H. cbv iota in H.
  assert (H2 := forallb_zrange _ _ _ H (a mod n) ltac:(lia)). cbv beta in H2.
  destruct (mp_jacobi (a mod n) n); try discriminate. f_equal. lia.
Qed.

(* the 2-part of N as kronecker_def computes it *)
Lemma gcd_pow2_log2 : forall N m k, 0 <= k -> oddpos m -> N = m * 2 ^ k -> Z.gcd N (2 ^ Z.log2 N) = 2 ^ k.
Proof.
  intros N m k Hk [Hm Ho] ->.
  assert (Hp : 0 < 2 ^ k) by (apply Z.pow_pos_nonneg; lia).
  assert (Hl : k <= Z.log2 (m * 2 ^ k)).
  { rewrite <- (Z.log2_pow2 k Hk) at 1. apply Z.log2_le_mono. nia. }
  replace (Z.log2 (m * 2 ^ k)) with (Z.log2 (m * 2 ^ k) - k + k) by lia.
  rewrite Z.pow_add_r, Z.gcd_mul_mono_r_nonneg by lia.
  replace (Z.gcd m _) with 1; [lia|]. symmetry. apply Zgcd_1_rel_prime, rel_prime_Zpower_r; [lia|].
  apply rel_prime_sym, prime_rel_prime; [exact prime_2|].
  intros Hd. apply Z.mod_divide in Hd; lia.
Qed.

Theorem kronecker_definition_of_jacobi : forall a n,
  (forall m, 0 < m <= Z.abs n -> m mod 2 = 1 -> mp_jacobi a m = Ok (jacobi_def a m)) ->
  mp_kronecker a n = Ok (kronecker_def a n).
Proof.
  intros a n HJ. destruct (Z.eq_dec n 0) as [->|Hn0].
  - cbn. f_equal. destruct (Z.abs a =? 1) eqn:E, (a =? 1) eqn:E1, (a =? -1) eqn:E2; try reflexivity; lia.
  - destruct (kronecker_of_jacobi a n Hn0) as (j & m & Hj & He & [Hm Ho] & H).
    assert (Hp : 0 < 2 ^ j) by (apply Z.pow_pos_nonneg; lia).
    rewrite (H _ (HJ m ltac:(nia) Ho)).
    unfold kronecker_def. destruct (n =? 0) eqn:E; [lia|].
    rewrite (gcd_pow2_log2 _ m j), Z.log2_pow2, He, Z.div_mul by (unfold oddpos; auto; lia). reflexivity.
Qed.

Theorem kronecker_definition_small : forall n a, -100 < n < 100 -> mp_kronecker a n = Ok (kronecker_def a n).
Proof.
  intros n a Hn. apply kronecker_definition_of_jacobi. intros m Hm Ho. apply jacobi_definition_small; auto; lia.
Qed.
