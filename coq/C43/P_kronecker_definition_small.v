From SE Require Import Base.Prelude C43.MpModel C43.MpSpec C43.MpJacobi.
From Coq Require Import Znumtheory.
Local Open Scope Z_scope.

Theorem C43_kronecker_definition_small :
  forall n a, -64 <= n <= 64 -> -40 <= a <= 40 ->
  mp_kronecker a n = Ok (kronecker_def a n).
Proof. intros n a Hn _. apply kronecker_definition_small. lia. Qed.
Print Assumptions C43_kronecker_definition_small.
