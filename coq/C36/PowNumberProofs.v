(* C36 -- pow_number (as_real_imag.cpp): binary powering of a pair (re, im) with an `unsigned long`
   mask.  [pn_loop] is the loop on complex values; it returns z^n for every n < 2^64 (the wrap of
   mask << 1 at 64 bits included).  [pow_number_loop_sim]: the model's loop on expression pairs
   computes the same thing, provided mul / add / sub on the parts are sound. *)
From Coq Require Import Reals Lra Lia.
From Coquelicot Require Import Complex.
From SE Require Import C36.RewriteModel C36.RewriteSpec.
Local Open Scope C_scope.

Definition W64 : N := 18446744073709551616%N.

Fixpoint pn_loop (k : nat) (n mask : N) (p out : C) : option C :=
  match k with
  | O => None
  | S k' =>
      let out' := if negb (N.land n mask =? 0)%N then out * p else out in
      let mask' := ((mask * 2) mod W64)%N in
      if ((0 <? mask') && (mask' <=? n))%N then pn_loop k' n mask' (p * p) out' else Some out'
  end.

Definition cpn (z : C) (n : N) : C := Cpow z (N.to_nat n).

Lemma Cpow_add : forall z a b, Cpow z (a + b) = Cpow z a * Cpow z b.
Proof. intros z a b. induction a as [|a IH]; cbn [Cpow Nat.add]; [ring|]. rewrite IH. ring. Qed.
Lemma cpn_add : forall z a b, cpn z (a + b) = cpn z a * cpn z b.
Proof. intros z a b. unfold cpn. rewrite N2Nat.inj_add. apply Cpow_add. Qed.
Lemma cpn_0 : forall z, cpn z 0 = RtoC 1.
Proof. reflexivity. Qed.

(* n land 2^j is 2^j or 0 according to bit j *)
Lemma land_pow2 : forall n j, N.land n (2 ^ j) = if N.testbit n j then (2 ^ j)%N else 0%N.
Proof.
  intros n j. apply N.bits_inj. intro i. rewrite N.land_spec, N.pow2_bits_eqb.
  destruct (N.eqb_spec j i) as [->|Hne].
  - destruct (N.testbit n i) eqn:E; [now rewrite N.pow2_bits_true | now rewrite N.bits_0].
  - rewrite Bool.andb_false_r. destruct (N.testbit n j); [|now rewrite N.bits_0].
    symmetry. apply N.pow2_bits_false. congruence.
Qed.

Lemma mod_pow2_succ : forall n j, (n mod 2 ^ (j + 1) = n mod 2 ^ j + (if N.testbit n j then 2 ^ j else 0))%N.
Proof.
  intros n j. rewrite N.pow_add_r, N.pow_1_r.
  assert (H2j : (2 ^ j <> 0)%N) by (apply N.pow_nonzero; lia).
  rewrite N.mod_mul_r by (assumption || lia).
  rewrite N.testbit_eqb.
  assert (Hlt2 : ((n / 2 ^ j) mod 2 < 2)%N) by (apply N.mod_lt; discriminate).
  generalize dependent ((n / 2 ^ j) mod 2)%N. intros X HX.
  destruct (N.eqb_spec X 1) as [->|E].
  - now rewrite N.mul_1_r.
  - assert (X = 0)%N as -> by lia. now rewrite N.mul_0_r.
Qed.

Lemma pn_loop_correct : forall k j n z out,
  (n < W64)%N -> (j <= 63)%N -> (64 <= N.of_nat k + j)%N -> (2 ^ j <= n \/ j = 0)%N ->
  out = cpn z (n mod 2 ^ j) ->
  pn_loop k n (2 ^ j) (cpn z (2 ^ j)) out = Some (cpn z n).
Proof.
  induction k as [|k IH]; intros j n z out Hn Hj Hk Hle Hout; [lia|].
  cbn [pn_loop]. rewrite land_pow2.
  set (out' := if negb ((if N.testbit n j then (2 ^ j)%N else 0%N) =? 0)%N then out * cpn z (2 ^ j) else out).
  assert (Hout' : out' = cpn z (n mod 2 ^ (j + 1))).
  { unfold out'. rewrite mod_pow2_succ, Hout. destruct (N.testbit n j).
    - assert ((2 ^ j =? 0)%N = false) by (apply N.eqb_neq, N.pow_nonzero; lia). rewrite H. cbn [negb].
      now rewrite cpn_add.
    - cbn [N.eqb negb]. now rewrite N.add_0_r. }
  assert (Hm : (2 ^ j * 2 = 2 ^ (j + 1))%N) by (rewrite N.pow_add_r, N.pow_1_r; reflexivity).
  rewrite Hm.
  destruct (N.eq_dec j 63) as [->|Hj63].
  - (* mask << 1 wraps to 0 *)
    replace ((2 ^ (63 + 1)) mod W64)%N with 0%N by reflexivity. cbn [N.ltb N.compare andb].
    rewrite Hout'. f_equal. f_equal. apply N.mod_small. exact Hn.
  - assert (Hlt : (2 ^ (j + 1) < W64)%N).
    { unfold W64. change 18446744073709551616%N with (2 ^ 64)%N. apply N.pow_lt_mono_r; lia. }
    rewrite N.mod_small by exact Hlt.
    assert (Hpos : (0 <? 2 ^ (j + 1))%N = true).
    { apply N.ltb_lt. assert (2 ^ (j + 1) <> 0)%N by (apply N.pow_nonzero; lia). lia. }
    rewrite Hpos. cbn [andb].
    destruct (N.leb_spec (2 ^ (j + 1)) n) as [Hc|Hc].
    + replace (cpn z (2 ^ j) * cpn z (2 ^ j)) with (cpn z (2 ^ (j + 1))).
      * apply IH; try lia. exact Hout'.
      * rewrite <- cpn_add. f_equal. rewrite <- Hm. lia.
    + rewrite Hout'. f_equal. f_equal. apply N.mod_small. exact Hc.
Qed.

Theorem pn_loop_pow : forall n z, (n < W64)%N -> pn_loop 65 n 1 z (RtoC 1) = Some (cpn z n).
Proof.
  intros n z Hn.
  assert (E : cpn z (2 ^ 0) = z) by (unfold cpn; change (N.to_nat (2 ^ 0)) with 1%nat; cbn [Cpow]; ring).
  assert (H : pn_loop 65 n (2 ^ 0) (cpn z (2 ^ 0)) (RtoC 1) = Some (cpn z n)).
  { apply pn_loop_correct; try lia. rewrite N.pow_0_r, N.mod_1_r. reflexivity. }
  rewrite E in H. exact H.
Qed.

Section Sim.
  Variable val : expr -> C.
  Variable ok : expr -> Prop.
  Hypothesis H_mul : forall a b r, a_mul a b = Ok r -> ok a -> ok b -> ok r /\ val r = val a * val b.
  Hypothesis H_add : forall a b r, a_add a b = Ok r -> ok a -> ok b -> ok r /\ val r = val a + val b.
  Hypothesis H_sub : forall a b r, a_sub a b = Ok r -> ok a -> ok b -> ok r /\ val r = val a - val b.
  Hypothesis H_two : ok (e_int 2) /\ val (e_int 2) = RtoC 2.

  Definition pv (p : expr * expr) : C := val (fst p) + Ci * val (snd p).
  Definition okp (p : expr * expr) : Prop := ok (fst p) /\ ok (snd p).

  Ltac inv_bind H :=
    match type of H with
    | bind ?r _ = Ok _ => let x := fresh "x" in let E := fresh "E" in
        destruct r as [x| | |] eqn:E; cbn [bind] in H; try discriminate
    end.

  Lemma ri_pair_mul_sound : forall a b r, ri_pair_mul a b = Ok r -> okp a -> okp b -> okp r /\ pv r = pv a * pv b.
  Proof.
    intros [a1 a2] [b1 b2] r H [Oa1 Oa2] [Ob1 Ob2]. unfold ri_pair_mul in H. cbn [fst snd] in *.
    do 6 inv_bind H. injection H as <-.
    destruct (H_mul _ _ _ E Oa1 Ob1) as [O1 V1]. destruct (H_mul _ _ _ E0 Oa2 Ob2) as [O2 V2].
    destruct (H_sub _ _ _ E1 O1 O2) as [O3 V3]. destruct (H_mul _ _ _ E2 Oa1 Ob2) as [O4 V4].
    destruct (H_mul _ _ _ E3 Oa2 Ob1) as [O5 V5]. destruct (H_add _ _ _ E4 O4 O5) as [O6 V6].
    split; [split; assumption|]. unfold pv. cbn [fst snd]. rewrite V3, V6, V1, V2, V4, V5.
    generalize (val a1) (val a2) (val b1) (val b2). intros [u1 w1] [u2 w2] [u3 w3] [u4 w4].
    cbv [Cplus Cminus Cmult Copp Ci fst snd]. f_equal; ring.
  Qed.

  Lemma ri_pair_sqr_sound : forall p r, ri_pair_sqr p = Ok r -> okp p -> okp r /\ pv r = pv p * pv p.
  Proof.
    intros [p1 p2] r H [O1 O2]. unfold ri_pair_sqr in H. cbn [fst snd] in *.
    do 5 inv_bind H. injection H as <-. destruct H_two as [Ot Vt].
    destruct (H_mul _ _ _ E O1 O1) as [Oa Va]. destruct (H_mul _ _ _ E0 O2 O2) as [Ob Vb].
    destruct (H_sub _ _ _ E1 Oa Ob) as [Oc Vc]. destruct (H_mul _ _ _ E2 O1 O2) as [Od Vd].
    destruct (H_mul _ _ _ E3 Ot Od) as [Oe Ve].
    split; [split; assumption|]. unfold pv. cbn [fst snd]. rewrite Vc, Ve, Va, Vb, Vd, Vt.
    generalize (val p1) (val p2). intros [u1 w1] [u2 w2].
    cbv [Cplus Cminus Cmult Copp Ci RtoC fst snd]. f_equal; ring.
  Qed.

  Lemma pow_number_loop_sim : forall k n mask p out r,
    pow_number_loop k n mask p out = Ok r -> okp p -> okp out ->
    okp r /\ pn_loop k n mask (pv p) (pv out) = Some (pv r).
  Proof.
    induction k as [|k IH]; intros n mask p out r H Op Oo; cbn [pow_number_loop] in H; [discriminate|].
    cbn [pn_loop]. fold W64 in H. inv_bind H. rename x into out'.
    assert (St : okp out' /\ pv out' = if negb (N.land n mask =? 0)%N then pv out * pv p else pv out).
    { destruct (negb (N.land n mask =? 0)%N); [exact (ri_pair_mul_sound _ _ _ E Oo Op)|].
      injection E as <-. split; [exact Oo | reflexivity]. }
    destruct St as [Ox Vx]. rewrite <- Vx.
    destruct ((0 <? (mask * 2) mod W64)%N && ((mask * 2) mod W64 <=? n)%N).
    - inv_bind H. destruct (ri_pair_sqr_sound _ _ E0 Op) as [Oy Vy]. rewrite <- Vy. exact (IH _ _ _ _ _ H Oy Ox).
    - injection H as <-. split; [exact Ox | reflexivity].
  Qed.

  (* pow_number(re, im, n) = (re + I im)^n for n < 2^64 *)
  Theorem pow_number_sound : forall re im n r,
    ri_pow_number re im n = Ok r -> ok re -> ok im -> ok e_one -> ok e_zero ->
    val e_one = RtoC 1 -> val e_zero = RtoC 0 -> (n < W64)%N ->
    okp r /\ pv r = cpn (pv (re, im)) n.
  Proof.
    intros re im n r H Ore Oim O1 O0 V1 V0 Hn. unfold ri_pow_number in H.
    destruct (pow_number_loop_sim _ _ _ _ _ _ H (conj Ore Oim) (conj O1 O0)) as [Or Vr].
    split; [exact Or|].
    assert (E : pv (e_one, e_zero) = RtoC 1) by (unfold pv; cbn [fst snd]; rewrite V1, V0; ring).
    rewrite E, pn_loop_pow in Vr by exact Hn. now injection Vr.
  Qed.
End Sim.
