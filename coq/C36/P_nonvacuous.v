(* C36: the model computes non-trivial results on concrete inputs, the hypotheses of the rule theorems
   are satisfiable, and handle_minus on integer literals returns the orientation / exponent for which the
   integer power laws of P_numer_denom_int_powers.v are the required premise. *)
From SE Require Import C36.RewriteModel.
Local Open Scope Z_scope.
Definition vx := ESym [120%N]. Definition vy := ESym [121%N]. Definition vz := ESym [122%N].
Definition c_pi := EConst [112%N; 105%N].
(* x/y + 1/z  ->  (y + x*z) / (y*z) *)
Definition frac_sum := EAdd (NInt 0) [(EPow vz (e_int (-1)), NInt 1); (EMul (NInt 1) [(vx, e_int 1); (vy, e_int (-1))], NInt 1)].
Example C36_numer_denom_runs :
  as_numer_denom frac_sum =
    Ok (EAdd (NInt 0) [(vy, NInt 1); (EMul (NInt 1) [(vx, e_int 1); (vz, e_int 1)], NInt 1)],
        EMul (NInt 1) [(vy, e_int 1); (vz, e_int 1)]) /\
  as_numer_denom (ENum (NCplx 1 2 3 4)) = Ok (ENum (NCplx 2 1 3 1), e_int 4) /\
  as_numer_denom (EPow (EMul (NInt 1) [(vx, e_int 1); (vy, e_int (-1))]) (e_int (-3))) =
    Ok (EPow vy (e_int 3), EPow vx (e_int 3)).
Proof. vm_compute. repeat split; reflexivity. Qed.
Example C36_handle_minus_int :
  handle_minus 5 (e_int (-3)) = Ok (true, e_int 3) /\ handle_minus 5 (e_int 3) = Ok (false, e_int 3) /\
  handle_minus 5 (EMul (NInt (-1)) [(vy, e_int 1)]) = Ok (true, vy) /\
  handle_minus 5 (EAdd (NInt (-1)) [(vy, NInt 1)]) = Ok (true, EAdd (NInt 1) [(vy, NInt (-1))]).
Proof. vm_compute. repeat split; reflexivity. Qed.
(* (pi + I)^3 = (pi^3 - 3 pi) + I (3 pi^2 - 1), through pow_number *)
Example C36_real_imag_runs :
  as_real_imag (EPow (EAdd (NCplx 0 1 1 1) [(c_pi, NInt 1)]) (e_int 3)) =
    Ok (EAdd (NInt 0) [(EMul (NInt 1) [(c_pi, e_int 1); (EAdd (NInt (-1)) [(EPow c_pi (e_int 2), NInt 1)], e_int 1)], NInt 1);
                       (c_pi, NInt (-2))],
        EAdd (NInt (-1)) [(EPow c_pi (e_int 2), NInt 3)]).
Proof. vm_compute. reflexivity. Qed.
Example C36_rewrite_runs :
  rewrite_as RwExp (EF1 TC_Tan vx) =
    Ok (RDiv (RSub (RExp (RMul RI (RRef [0%nat]))) (RExp (RNeg (RMul RI (RRef [0%nat])))))
             (RMul RI (RAdd (RExp (RMul RI (RRef [0%nat]))) (RExp (RNeg (RMul RI (RRef [0%nat]))))))) /\
  trig_to_sqrt (EF1 TC_Sin (EF1 TC_ACos vx)) = RSqrt (RSub (r_int 1) (RPow (RRef [0%nat; 0%nat]) (r_int 2))) /\
  conjugate (EMul (NCplx 1 2 3 4) [(vx, e_int 2)]) =
    Ok (RMul (r_int 1) (RDatnMul (NCplx 1 2 (-3) 4) [(RRef [1%nat; 1%nat], RRawConj (RRef [1%nat; 0%nat]))])).
Proof. vm_compute. repeat split; reflexivity. Qed.
