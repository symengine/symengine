(* C36 -- NumerDenomVisitor: numerator / denominator = input, rule by rule, in ANY field.

   The visitor only combines results of add / mul / div / pow.  [den] is the value of an expression
   under some valuation, in a field F; [dfn e] says that the value of e is defined (no division by
   zero inside).  What is assumed about them (Section hypotheses, i.e. premises of the theorem):
   - the arithmetic constructors compute what their names say on defined operands (the content of
     C07: add_sound, mul_sound ...), including definedness of the result;
   - den is a homomorphism on the constructors the visitor takes apart (the value of a Mul / Add is
     the product / sum of the values of get_args(), the value of Pow(b, x) is [P (den b) x], integer
     and rational literals have their usual values);
   - the power laws the visitor relies on: for the exponent x' and the flag returned by
     handle_minus(x):  (u/v)^x = u^x'/v^x'  (flag false)  resp.  v^x'/u^x'  (flag true).
     These laws hold for integer literal exponents in every field ([powz_split], [powz_swap] below,
     with C36_handle_minus_int of P_nonvacuous.v); they FAIL for x = 1/2 when v < 0, which is the known
     finding C36/nd-value:nonint-pow (P_numer_denom_refuted.v).
   Conclusion: for every fuel and every e, if as_numer_denom returns (n, d) and e is defined then
   n, d are defined, d <> 0 and n / d = e. *)
From SE Require Import C36.RewriteModel C36.NumerDenomSpec.
From Coq Require Import Field Lia QArith.
Local Open Scope res_scope.

Lemma bind_ok : forall {A B : Type} (r : res A) (f : A -> res B) (b : B),
  bind r f = Ok b -> exists a, r = Ok a /\ f a = Ok b.
Proof. intros A B r f b H. destruct r; cbn [bind] in H; try discriminate. eauto. Qed.

Ltac inv_bind H :=
  match type of H with
  | bind _ _ = Ok _ => let x := fresh "x" in let E := fresh "E" in
                       apply bind_ok in H; destruct H as (x & E & H)
  end.

Section NDSound.
  Variable F : Type.
  Variables (f0 f1 : F) (fadd fmul fsub : F -> F -> F) (fopp : F -> F) (fdiv : F -> F -> F) (finv : F -> F).
  Hypothesis Fth : field_theory f0 f1 fadd fmul fsub fopp fdiv finv (@eq F).
  Add Field FF : Fth.
  Notation "a + b" := (fadd a b).
  Notation "a * b" := (fmul a b).
  Notation "a / b" := (fdiv a b).

  Variable den : expr -> F.
  Variable dfn : expr -> Prop.
  Variable P : F -> expr -> F.           (* u ^ x *)
  Variable pdef : F -> expr -> Prop.     (* u ^ x is defined *)

  (* arithmetic constructors *)
  Hypothesis H_mul : forall a b r, a_mul a b = Ok r -> dfn a -> dfn b -> dfn r /\ den r = den a * den b.
  Hypothesis H_add : forall a b r, a_add a b = Ok r -> dfn a -> dfn b -> dfn r /\ den r = den a + den b.
  Hypothesis H_div : forall a b r, a_div a b = Ok r -> dfn a -> dfn b -> den b <> f0 ->
                                   dfn r /\ den r = den a / den b.
  Hypothesis H_pow : forall a x r, a_pow a x = Ok r -> dfn a -> pdef (den a) x -> dfn r /\ den r = P (den a) x.
  (* the constructors that are taken apart *)
  Hypothesis H_one : dfn e_one /\ den e_one = f1.
  Hypothesis H_zero : dfn e_zero /\ den e_zero = f0.
  Hypothesis H_args_mul : forall c d, dfn (EMul c d) ->
    Forall dfn (mul_get_args c d) /\ den (EMul c d) = fold_right (fun x acc => den x * acc) f1 (mul_get_args c d).
  Hypothesis H_args_add : forall c d, dfn (EAdd c d) ->
    Forall dfn (add_get_args c d) /\ den (EAdd c d) = fold_right (fun x acc => den x + acc) f0 (add_get_args c d).
  Hypothesis H_pow_node : forall b x, dfn (EPow b x) -> dfn b /\ pdef (den b) x /\ den (EPow b x) = P (den b) x.
  Hypothesis H_rat : forall n d, dfn (ENum (NInt n)) /\ dfn (ENum (NInt (Zpos d))) /\ den (ENum (NInt (Zpos d))) <> f0 /\
                                 den (ENum (NRat n d)) = den (ENum (NInt n)) / den (ENum (NInt (Zpos d))).
  Hypothesis H_cplx : forall rn rd imn imd,
    let r := nd_complex rn rd imn imd in
    dfn (fst r) /\ dfn (snd r) /\ den (snd r) <> f0 /\ den (ENum (NCplx rn rd imn imd)) = den (fst r) / den (snd r).
  (* the power laws, through handle_minus *)
  Hypothesis H_pow_laws : forall fuel x neg x' u v, handle_minus fuel x = Ok (neg, x') ->
    v <> f0 -> pdef (u / v) x ->
    pdef u x' /\ pdef v x' /\
    (if neg then P u x' <> f0 /\ P (u / v) x = P v x' / P u x'
     else P v x' <> f0 /\ P (u / v) x = P u x' / P v x').

  (* n / d is a defined quotient with value v *)
  Definition frac (n d : expr) (v : F) : Prop := dfn n /\ dfn d /\ den d <> f0 /\ den n / den d = v.
  Definition good (e n d : expr) : Prop := dfn n /\ dfn d /\ den d <> f0 /\ den n / den d = den e.

  Lemma f1_nz : f1 <> f0.
  Proof. intro H. apply (F_1_neq_0 Fth). exact H. Qed.

  (* e / 1 = e: the result for every node that has no denominator, and the initial state of the loops *)
  Lemma good_one : forall e, dfn e -> good e e e_one.
  Proof.
    intros e De. destruct H_one as [D1 E1]. unfold good. rewrite E1.
    repeat split; [exact De | exact D1 | exact f1_nz | field; exact f1_nz].
  Qed.
  Lemma frac_init : forall e v, dfn e -> den e = v -> frac e e_one v.
  Proof. intros e v De <-. exact (good_one e De). Qed.
  Lemma fmul_nz : forall a b : F, a <> f0 -> b <> f0 -> a * b <> f0.
  Proof.
    intros a b Ha Hb H. apply Ha. transitivity ((a * b) / b); [field; exact Hb|]. rewrite H. field. exact Hb.
  Qed.

  Section Step.
    Variable nd : expr -> res (expr * expr).
    Hypothesis IH : forall e n d, nd e = Ok (n, d) -> dfn e -> good e n d.

    (* the loops, started in any state: the value of the state is multiplied by (added to) the values of the arguments *)
    Lemma nd_mul_loop1 : forall l c curr, Forall dfn l -> dfn c ->
      fold_res (nd_mul_step1 nd) l c = Ok curr ->
      dfn curr /\ den curr = den c * fold_right (fun x acc => den x * acc) f1 l.
    Proof.
      induction l as [|a l IHl]; intros c curr Hl Dc Hr; cbn [fold_res fold_right] in *.
      - injection Hr as <-. split; [exact Dc | ring].
      - apply Forall_cons_iff in Hl. destruct Hl as [Da Hl']. inv_bind Hr. rename x into c', E into Hs. unfold nd_mul_step1 in Hs.
        inv_bind Hs. destruct x as [an ad]. cbn [fst snd] in Hs. inv_bind Hs.
        destruct (IH a an ad E Da) as (Dn & Dd & Nz & Eq).
        destruct (H_mul _ _ _ E0 Dc Dn) as [Dt Et].
        destruct (H_div _ _ _ Hs Dt Dd Nz) as [Dr Er].
        destruct (IHl _ _ Hl' Dr Hr) as [D Ev]. split; [exact D|]. rewrite Ev, Er, Et, <- Eq. field. exact Nz.
    Qed.

    Lemma nd_mul_loop2 : forall l cn cd n d v, Forall dfn l -> frac cn cd v ->
      fold_res (nd_mul_step2 nd) l (cn, cd) = Ok (n, d) ->
      frac n d (v * fold_right (fun x acc => den x * acc) f1 l).
    Proof.
      induction l as [|a l IHl]; intros cn cd n d v Hl (Dn & Dd & Nz & Eq) Hr; cbn [fold_res fold_right] in *.
      - injection Hr as <- <-. repeat split; try assumption. rewrite Eq. ring.
      - apply Forall_cons_iff in Hl. destruct Hl as [Da Hl']. inv_bind Hr. destruct x as [cn' cd']. rename E into Hs.
        unfold nd_mul_step2 in Hs. cbn [fst snd] in Hs.
        inv_bind Hs. destruct x as [an ad]. cbn [fst snd] in Hs. inv_bind Hs. inv_bind Hs. injection Hs as <- <-.
        destruct (IH a an ad E Da) as (Dan & Dad & Nza & Eqa).
        destruct (H_mul _ _ _ E0 Dn Dan) as [D1 E1'].
        destruct (H_mul _ _ _ E1 Dd Dad) as [D2 E2'].
        assert (St : frac x x0 (v * den a)).
        { repeat split; [exact D1 | exact D2 | rewrite E2'; apply fmul_nz; assumption |].
          rewrite E1', E2', <- Eqa, <- Eq. field. split; assumption. }
        destruct (IHl _ _ _ _ _ Hl' St Hr) as (A & B & C & D). repeat split; try assumption. rewrite D. ring.
    Qed.

    Lemma nd_add_loop : forall l cn cd n d v, Forall dfn l -> frac cn cd v ->
      fold_res (nd_add_step nd) l (cn, cd) = Ok (n, d) ->
      frac n d (v + fold_right (fun x acc => den x + acc) f0 l).
    Proof.
      induction l as [|a l IHl]; intros cn cd n d v Hl (Dn & Dd & Nz & Eq) Hr; cbn [fold_res fold_right] in *.
      - injection Hr as <- <-. repeat split; try assumption. rewrite Eq. ring.
      - apply Forall_cons_iff in Hl. destruct Hl as [Da Hl']. inv_bind Hr. destruct x as [cn' cd']. rename E into Hs.
        assert (St : frac cn' cd' (v + den a)); [|destruct (IHl _ _ _ _ _ Hl' St Hr) as (A & B & C & D);
                                                  repeat split; try assumption; rewrite D; ring].
        unfold nd_add_step in Hs. cbn [fst snd] in Hs.
        inv_bind Hs. destruct x as [an ad]. cbn [fst snd] in Hs. inv_bind Hs. rename x into divx. inv_bind Hs.
        destruct x as [dxn dxd]. cbn [fst snd] in Hs.
        destruct (IH a an ad E Da) as (Dan & Dad & Nza & Eqa).
        destruct (H_div _ _ _ E0 Dad Dd Nz) as [Ddivx Edivx].
        destruct (expr_eqb dxd e_one).
        + inv_bind Hs. inv_bind Hs. injection Hs as <- <-.
          destruct (H_mul _ _ _ E2 Dn Ddivx) as [Dt Et].
          destruct (H_add _ _ _ E3 Dt Dan) as [Dnn Enn].
          split; [exact Dnn|]. split; [exact Dad|]. split; [exact Nza|].
          rewrite Enn, Et, Edivx, <- Eq, <- Eqa. field. split; assumption.
        + inv_bind Hs. rename x into divx2. inv_bind Hs. destruct x as [n2 d2]. cbn [fst snd] in Hs.
          inv_bind Hs. inv_bind Hs. inv_bind Hs. inv_bind Hs. injection Hs as <- <-.
          destruct (H_div _ _ _ E2 Dd Dad Nza) as [Ddivx2 Edivx2].
          destruct (IH divx2 n2 d2 E3 Ddivx2) as (Dn2 & Dd2 & Nz2 & Eq2).
          destruct (H_mul _ _ _ E4 Dd Dd2) as [Dnd End].
          destruct (H_mul _ _ _ E5 Dn Dd2) as [Dt1 Et1].
          destruct (H_mul _ _ _ E6 Dan Dn2) as [Dt2 Et2].
          destruct (H_add _ _ _ E7 Dt1 Dt2) as [Dnn Enn].
          split; [exact Dnn|]. split; [exact Dnd|]. split.
          * rewrite End. apply fmul_nz; assumption.
          * rewrite Enn, Et1, Et2, End, <- Eq, <- Eqa.
            assert (Hn2 : den n2 = den cd / den ad * den d2).
            { rewrite <- Edivx2, <- Eq2. field. exact Nz2. }
            rewrite Hn2. field. repeat split; assumption.
    Qed.

    Lemma nd_visit_good : forall hf e n d, nd_visit nd hf e = Ok (n, d) -> dfn e -> good e n d.
    Proof.
      intros hf e n d Hv De. destruct e; cbn [nd_visit] in Hv;
        try (injection Hv as <- <-; exact (good_one _ De)); unfold good.
      - (* ENum *)
        destruct n0; try (injection Hv as <- <-; exact (good_one _ De)).
        + (* Rational *) injection Hv as <- <-. destruct (H_rat n0 d0) as (A & B & C & D). repeat split; auto.
        + (* Complex *) pose proof (H_cplx rn rd imn imd) as Hc. cbv zeta in Hc.
          destruct (nd_complex rn rd imn imd) as [cn cd]. injection Hv as <- <-. cbn [fst snd] in Hc.
          destruct Hc as (A & B & C & D). repeat split; auto.
      - (* EAdd *)
        destruct (H_args_add coef d0 De) as [Hall Hval].
        destruct (nd_add_loop _ _ _ _ _ _ Hall (frac_init _ _ (proj1 H_zero) (proj2 H_zero)) Hv) as (A & B & C & D).
        repeat split; auto. rewrite Hval, D. ring.
      - (* EMul *)
        destruct (H_args_mul coef d0 De) as [Hall Hval].
        inv_bind Hv. rename x into curr.
        destruct (nd_mul_loop1 _ _ _ Hall (proj1 H_one) E) as [Dc Ec].
        assert (Hcurr : den curr = den (EMul coef d0)) by (rewrite Hval, Ec, (proj2 H_one); ring).
        destruct curr; try (destruct (IH _ _ _ Hv Dc) as (A & B & C & D); rewrite <- Hcurr; repeat split; auto).
        destruct (H_args_mul coef0 d1 Dc) as [Hall2 Hval2].
        destruct (nd_mul_loop2 _ _ _ _ _ _ Hall2 (frac_init _ _ (proj1 H_one) (proj2 H_one)) Hv) as (A & B & C & D).
        repeat split; auto. rewrite <- Hcurr, Hval2, D. ring.
      - (* EPow *)
        destruct (H_pow_node _ _ De) as (Db & Pd & Ev).
        inv_bind Hv. destruct x as [n0 d0]. inv_bind Hv. destruct x as [neg x']. cbn [fst snd] in Hv.
        destruct (IH _ _ _ E Db) as (Dn0 & Dd0 & Nz0 & Eq0).
        rewrite <- Eq0 in Pd.
        destruct (H_pow_laws _ _ _ _ _ _ E0 Nz0 Pd) as (Pu & Pv & Law).
        destruct neg; inv_bind Hv; inv_bind Hv; injection Hv as <- <-; destruct Law as [Nzp Law].
        + destruct (H_pow _ _ _ E1 Dd0 Pv) as [D1 E1']. destruct (H_pow _ _ _ E2 Dn0 Pu) as [D2 E2'].
          repeat split; auto; [rewrite E2'; exact Nzp | rewrite E1', E2', Ev, <- Eq0, Law; reflexivity].
        + destruct (H_pow _ _ _ E1 Dn0 Pu) as [D1 E1']. destruct (H_pow _ _ _ E2 Dd0 Pv) as [D2 E2'].
          repeat split; auto; [rewrite E2'; exact Nzp | rewrite E1', E2', Ev, <- Eq0, Law; reflexivity].
    Qed.
  End Step.

  Theorem numer_denom_sound : forall fuel e n d,
    as_numer_denom_f fuel e = Ok (n, d) -> dfn e -> good e n d.
  Proof.
    induction fuel as [|f IHf]; intros e n d H De; cbn [as_numer_denom_f] in H; [discriminate|].
    exact (nd_visit_good (as_numer_denom_f f) IHf _ e n d H De).
  Qed.
End NDSound.

(* the same with the premises gathered in [nd_semantics] (C36/NumerDenomSpec.v) *)
Theorem numer_denom_sound_sem :
  forall (F : Type) (f0 f1 : F) (fadd fmul fsub : F -> F -> F) (fopp : F -> F) (fdiv : F -> F -> F) (finv : F -> F),
    field_theory f0 f1 fadd fmul fsub fopp fdiv finv (@eq F) ->
    forall den dfn P pdef, nd_semantics f0 f1 fadd fmul fdiv den dfn P pdef ->
    forall fuel e n d, as_numer_denom_f fuel e = Ok (n, d) -> dfn e ->
      dfn n /\ dfn d /\ den d <> f0 /\ fdiv (den n) (den d) = den e.
Proof.
  intros F f0 f1 fadd fmul fsub fopp fdiv finv Fth den dfn P pdef S fuel e n d H De.
  destruct S.
  exact (numer_denom_sound F f0 f1 fadd fmul fsub fopp fdiv finv Fth den dfn P pdef
           sem_mul sem_add sem_div sem_pow sem_one sem_zero sem_args_mul sem_args_add sem_pow_node sem_rat sem_cplx
           sem_pow_laws fuel e n d H De).
Qed.

(* bvisit(const Complex &): with L = lcm of the two denominators, the Gaussian integer
   rn*(L/rd) + I*imn*(L/imd) over L is the Gaussian rational rn/rd + I*imn/imd *)
Lemma nd_complex_sound : forall (rn : Z) (rd : positive) (imn : Z) (imd : positive),
  let L := Z.lcm (Zpos rd) (Zpos imd) in
  (0 < L)%Z /\
  Qeq (Qmake (rn * (L / Zpos rd)) (Z.to_pos L)) (Qmake rn rd) /\
  Qeq (Qmake (imn * (L / Zpos imd)) (Z.to_pos L)) (Qmake imn imd) /\
  snd (nd_complex rn rd imn imd) = ENum (NInt L) /\
  fst (nd_complex rn rd imn imd) =
    ENum (if (imn * (L / Zpos imd) =? 0)%Z then NInt (rn * (L / Zpos rd))
          else NCplx (rn * (L / Zpos rd)) 1 (imn * (L / Zpos imd)) 1).
Proof.
  intros rn rd imn imd L.
  assert (HL : (0 < L)%Z).
  { pose proof (Z.lcm_nonneg (Zpos rd) (Zpos imd)). fold L in H.
    assert (L <> 0)%Z; [|lia]. unfold L. intro E. apply Z.lcm_eq_0 in E. lia. }
  destruct (Z.divide_lcm_l (Zpos rd) (Zpos imd)) as [k1 Hk1]. fold L in Hk1.
  destruct (Z.divide_lcm_r (Zpos rd) (Zpos imd)) as [k2 Hk2]. fold L in Hk2.
  split; [exact HL|]. repeat split.
  - unfold Qeq. cbn [Qnum Qden]. rewrite Z2Pos.id by exact HL. rewrite Hk1, Z.div_mul by lia. ring.
  - unfold Qeq. cbn [Qnum Qden]. rewrite Z2Pos.id by exact HL. rewrite Hk2, Z.div_mul by lia. ring.
Qed.

Section PowZ.
  Variable F : Type.
  Variables (f0 f1 : F) (fadd fmul fsub : F -> F -> F) (fopp : F -> F) (fdiv : F -> F -> F) (finv : F -> F).
  Hypothesis Fth : field_theory f0 f1 fadd fmul fsub fopp fdiv finv (@eq F).
  Add Field FF2 : Fth.
  Notation "a * b" := (fmul a b).
  Notation "a / b" := (fdiv a b).

  Fixpoint pown (u : F) (n : nat) : F := match n with O => f1 | S k => u * pown u k end.

  Lemma pown_nz : forall u n, u <> f0 -> pown u n <> f0.
  Proof.
    intros u n Hu. induction n as [|n IH]; cbn [pown].
    - intro H. apply (F_1_neq_0 Fth). exact H.
    - intro H. apply IH. transitivity ((u * pown u n) / u); [field; exact Hu|]. rewrite H. field. exact Hu.
  Qed.

  (* (u/v)^n = u^n / v^n *)
  Lemma powz_split : forall u v n, v <> f0 -> pown (u / v) n = pown u n / pown v n.
  Proof.
    intros u v n Hv. induction n as [|n IH]; cbn [pown].
    - field. intro H. apply (F_1_neq_0 Fth). exact H.
    - rewrite IH. pose proof (pown_nz v n Hv). field. split; assumption.
  Qed.

  (* (u/v)^(-n) = v^n / u^n *)
  Lemma powz_swap : forall u v n, u <> f0 -> v <> f0 -> f1 / pown (u / v) n = pown v n / pown u n.
  Proof.
    intros u v n Hu Hv. rewrite powz_split by exact Hv.
    pose proof (pown_nz v n Hv). pose proof (pown_nz u n Hu). field. split; assumption.
  Qed.
End PowZ.
