(* C36 -- RealImagVisitor: the trigonometric / hyperbolic rules give the real and imaginary parts.
   For z = a + I*b (a, b real):
     sin, cos, sinh, cosh : the rules are the defining formulas of RewriteSpec.v;
     tan  z = ( sin 2a + I sinh 2b) / (cos 2a + cosh 2b)
     cot  z = (-sin 2a + I sinh 2b) / (cos 2a - cosh 2b)      (the CORRECT formula; the code has
              -sinh 2b in the imaginary part, which is wrong: [ri_cot_shipped_refuted], known
              finding C36/ri-value:cot)
     tanh z = (sinh a cosh a + I sin b cos b) / (sinh^2 a + cos^2 b)
     coth z = (sinh a cosh a - I sin b cos b) / (sinh^2 a + sin^2 b)
   each wherever the denominator used by the rule is not zero; the function is then defined there. *)
From Coq Require Import Reals Lra.
From Coquelicot Require Import Complex.
From SE Require Import C36.RewriteModel C36.RewriteSpec C36.RewriteProofs.
Local Open Scope R_scope.

Lemma cosh2_sinh2 : forall b, cosh b * cosh b - sinh b * sinh b = 1.
Proof.
  intro b. unfold cosh, sinh. pose proof (exp_neq_0 b). rewrite exp_Ropp. field. assumption.
Qed.
Lemma sin2_cos2' : forall a, sin a * sin a + cos a * cos a = 1.
Proof. intro a. pose proof (sin2_cos2 a) as H. unfold Rsqr in H. exact H. Qed.

(* a quotient is known once the product is *)
Lemma cdivo_eq : forall z1 z2 w : C, z2 <> RtoC 0 -> z1 = Cmult w z2 -> cdivo z1 z2 = Some w.
Proof. intros z1 z2 w H ->. rewrite cdivo_nz by exact H. f_equal. field. exact H. Qed.

Lemma den_nz : forall x y N : R, x * x + y * y = N -> N <> 0 -> (x, y) <> RtoC 0.
Proof. intros x y N <- H E. injection E as -> ->. apply H. ring. Qed.

Section Quot.
  Variables s c S Ch : R.
  Hypothesis Hsc : s * s + c * c = 1.
  Hypothesis Hch : Ch * Ch - S * S = 1.

  (* |c Ch +- I s S|^2 and |s Ch +- I c S|^2 *)
  Lemma modsq_c : (c * Ch) * (c * Ch) + (s * S) * (s * S) = c * c + S * S.
  Proof.
    transitivity (c * c * (Ch * Ch - S * S) + S * S * (s * s + c * c)); [ring | rewrite Hsc, Hch; ring].
  Qed.
  Lemma modsq_s : (s * Ch) * (s * Ch) + (c * S) * (c * S) = s * s + S * S.
  Proof.
    transitivity (s * s * (Ch * Ch - S * S) + S * S * (s * s + c * c)); [ring | rewrite Hsc, Hch; ring].
  Qed.

  (* the shape of tan, (s Ch + I c S) / (c Ch - I s S), and of tanh, (S c + I Ch s) / (Ch c + I S s):
     in both the product with the denominator gives back the numerator, using c^2 + S^2 = Ch^2 - s^2 *)
  Lemma quot_tan : c * c + S * S <> 0 ->
    cdivo ((s * Ch)%R, (c * S)%R) ((c * Ch)%R, (- (s * S))%R) = Some (s * c / (c * c + S * S), S * Ch / (c * c + S * S)).
  Proof.
    intros HN. apply cdivo_eq; [apply (den_nz _ _ (c * c + S * S)); [rewrite <- modsq_c; ring | exact HN] |].
    unfold Cmult. cbn [fst snd]. f_equal; [field; exact HN |].
    replace (c * c + S * S) with (Ch * Ch - s * s) in * by lra. field. exact HN.
  Qed.
  Lemma quot_tanh : c * c + S * S <> 0 ->
    cdivo ((S * c)%R, (Ch * s)%R) ((Ch * c)%R, (S * s)%R) = Some (S * Ch / (c * c + S * S), s * c / (c * c + S * S)).
  Proof.
    intros HN. apply cdivo_eq; [apply (den_nz _ _ (c * c + S * S)); [rewrite <- modsq_c; ring | exact HN] |].
    unfold Cmult. cbn [fst snd]. f_equal; [| field; exact HN].
    replace (c * c + S * S) with (Ch * Ch - s * s) in * by lra. field. exact HN.
  Qed.

  (* the shape of cot, (c Ch - I s S) / (s Ch + I c S), and of coth, (Ch c + I S s) / (S c + I Ch s),
     using s^2 + S^2 = Ch^2 - c^2 *)
  Lemma quot_cot : s * s + S * S <> 0 ->
    cdivo ((c * Ch)%R, (- (s * S))%R) ((s * Ch)%R, (c * S)%R) = Some (s * c / (s * s + S * S), - (S * Ch / (s * s + S * S))).
  Proof.
    intros HN. apply cdivo_eq; [apply (den_nz _ _ (s * s + S * S)); [rewrite <- modsq_s; ring | exact HN] |].
    unfold Cmult. cbn [fst snd]. f_equal; [field; exact HN |].
    replace (s * s + S * S) with (Ch * Ch - c * c) in * by lra. field. exact HN.
  Qed.
  Lemma quot_coth : s * s + S * S <> 0 ->
    cdivo ((Ch * c)%R, (S * s)%R) ((S * c)%R, (Ch * s)%R) = Some (S * Ch / (s * s + S * S), - (s * c / (s * s + S * S))).
  Proof.
    intros HN. apply cdivo_eq; [apply (den_nz _ _ (s * s + S * S)); [rewrite <- modsq_s; ring | exact HN] |].
    unfold Cmult. cbn [fst snd]. f_equal; [field; exact HN |].
    replace (s * s + S * S) with (Ch * Ch - c * c) in * by lra. field. exact HN.
  Qed.
End Quot.

Theorem ri_tan_rule : forall a b : R, cos (2 * a) + cosh (2 * b) <> 0 ->
  cfun1 TC_Tan (a, b) = Some (sin (2 * a) / (cos (2 * a) + cosh (2 * b)), sinh (2 * b) / (cos (2 * a) + cosh (2 * b))).
Proof.
  intros a b. rewrite sin_2a, cos_2a, cosh_2, sinh_2. intros HD.
  pose proof (sin2_cos2' a) as Hsc. pose proof (cosh2_sinh2 b) as Hch.
  change (cfun1 TC_Tan (a, b)) with (cdivo (csin (a, b)) (ccos (a, b))). unfold csin, ccos. cbn [fst snd].
  rewrite (quot_tan _ _ _ _ Hsc Hch) by lra.
  replace (cos a * cos a - sin a * sin a + (cosh b * cosh b + sinh b * sinh b))
    with (2 * (cos a * cos a + sinh b * sinh b)) in * by lra.
  do 2 f_equal; field; lra.
Qed.

Theorem ri_cot_rule_fixed : forall a b : R, cos (2 * a) - cosh (2 * b) <> 0 ->
  cfun1 TC_Cot (a, b) = Some (- (sin (2 * a) / (cos (2 * a) - cosh (2 * b))), sinh (2 * b) / (cos (2 * a) - cosh (2 * b))).
Proof.
  intros a b. rewrite sin_2a, cos_2a, cosh_2, sinh_2. intros HD.
  pose proof (sin2_cos2' a) as Hsc. pose proof (cosh2_sinh2 b) as Hch.
  change (cfun1 TC_Cot (a, b)) with (cdivo (ccos (a, b)) (csin (a, b))). unfold csin, ccos. cbn [fst snd].
  rewrite (quot_cot _ _ _ _ Hsc Hch) by lra.
  replace (cos a * cos a - sin a * sin a - (cosh b * cosh b + sinh b * sinh b))
    with (- (2 * (sin a * sin a + sinh b * sinh b))) in * by lra.
  do 2 f_equal; field; lra.
Qed.

Theorem ri_tanh_rule : forall a b : R, sinh a * sinh a + cos b * cos b <> 0 ->
  cfun1 TC_Tanh (a, b) = Some (sinh a * cosh a / (sinh a * sinh a + cos b * cos b),
                               sin b * cos b / (sinh a * sinh a + cos b * cos b)).
Proof.
  intros a b HD. rewrite (Rplus_comm (sinh a * sinh a)) in *.
  change (cfun1 TC_Tanh (a, b)) with (cdivo (csinh (a, b)) (ccosh (a, b))). unfold csinh, ccosh. cbn [fst snd].
  apply (quot_tanh _ _ _ _ (sin2_cos2' b) (cosh2_sinh2 a) HD).
Qed.

Theorem ri_coth_rule : forall a b : R, sinh a * sinh a + sin b * sin b <> 0 ->
  cfun1 TC_Coth (a, b) = Some (sinh a * cosh a / (sinh a * sinh a + sin b * sin b),
                               - (sin b * cos b / (sinh a * sinh a + sin b * sin b))).
Proof.
  intros a b HD. rewrite (Rplus_comm (sinh a * sinh a)) in *.
  change (cfun1 TC_Coth (a, b)) with (cdivo (ccosh (a, b)) (csinh (a, b))). unfold csinh, ccosh. cbn [fst snd].
  apply (quot_coth _ _ _ _ (sin2_cos2' b) (cosh2_sinh2 a) HD).
Qed.

(* the four rules that are the defining formulas *)
Theorem ri_direct_rules : forall a b : R,
  cfun1 TC_Sin (a, b) = Some (sin a * cosh b, sinh b * cos a) /\
  cfun1 TC_Cos (a, b) = Some (cos a * cosh b, - (sinh b * sin a)) /\
  cfun1 TC_Sinh (a, b) = Some (sinh a * cos b, sin b * cosh a) /\
  cfun1 TC_Cosh (a, b) = Some (cosh a * cos b, sin b * sinh a).
Proof.
  intros a b. repeat split.
  - change (cfun1 TC_Sin (a, b)) with (Some (csin (a, b))). unfold csin. cbn [fst snd]. do 2 f_equal. ring.
  - change (cfun1 TC_Cos (a, b)) with (Some (ccos (a, b))). unfold ccos. cbn [fst snd]. do 2 f_equal. ring.
  - change (cfun1 TC_Sinh (a, b)) with (Some (csinh (a, b))). unfold csinh. cbn [fst snd]. do 2 f_equal. ring.
  - change (cfun1 TC_Cosh (a, b)) with (Some (ccosh (a, b))). unfold ccosh. cbn [fst snd]. do 2 f_equal. ring.
Qed.

(* the rule as the code has it (imaginary part negated) is wrong, e.g. at z = I *)
Theorem ri_cot_shipped_refuted : exists a b : R,
  cos (2 * a) - cosh (2 * b) <> 0 /\
  cfun1 TC_Cot (a, b) <> Some (- (sin (2 * a) / (cos (2 * a) - cosh (2 * b))),
                               - (sinh (2 * b) / (cos (2 * a) - cosh (2 * b)))).
Proof.
  exists 0, 1.
  assert (Hs : 0 < sinh (2 * 1)) by (rewrite <- sinh_0; apply sinh_lt; lra).
  pose proof (cosh2_sinh2 (2 * 1)) as Hc.
  assert (Hp : 0 < cosh (2 * 1)) by (unfold cosh; pose proof (exp_pos (2 * 1)); pose proof (exp_pos (- (2 * 1))); lra).
  assert (HD : cos (2 * 0) - cosh (2 * 1) <> 0) by (rewrite Rmult_0_r, cos_0; nra).
  split; [exact HD|]. rewrite (ri_cot_rule_fixed 0 1 HD). intro H. injection H as H.
  assert (E : sinh (2 * 1) / (cos (2 * 0) - cosh (2 * 1)) = 0) by lra.
  apply (Rmult_eq_compat_r (cos (2 * 0) - cosh (2 * 1))) in E.
  unfold Rdiv in E. rewrite Rmult_assoc, Rinv_l, Rmult_1_r, Rmult_0_l in E by exact HD. lra.
Qed.
