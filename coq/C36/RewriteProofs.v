(* C36 -- the rule tables of RewriteAsExp / RewriteAsSin / RewriteAsCos preserve the value, at every
   complex point where the rewritten expression and the original function are both defined. *)
From Coq Require Import Reals Lra.
From Coquelicot Require Import Complex.
From SE Require Import C36.RewriteModel C36.RewriteSpec.
Local Open Scope C_scope.

Lemma Ci_mul : forall z : C, Ci * z = (- snd z, fst z)%R.
Proof. intros [a b]. unfold Ci, Cmult. cbn [fst snd]. f_equal; ring. Qed.

Lemma two_nz : RtoC 2 <> RtoC 0.
Proof. intro H. apply (f_equal fst) in H. cbn in H. lra. Qed.
Lemma Ci_nz : Ci <> RtoC 0.
Proof. intro H. apply (f_equal snd) in H. cbn in H. lra. Qed.
Lemma Cmult_nz : forall a b : C, a <> RtoC 0 -> b <> RtoC 0 -> a * b <> RtoC 0.
Proof. intros a b Ha Hb. apply Cmult_neq_0; assumption. Qed.
Lemma Cmult_nz_l : forall a b : C, a * b <> RtoC 0 -> a <> RtoC 0.
Proof. intros a b H Ha. apply H. rewrite Ha. ring. Qed.
Lemma Cmult_nz_r : forall a b : C, a * b <> RtoC 0 -> b <> RtoC 0.
Proof. intros a b H Hb. apply H. rewrite Hb. ring. Qed.

(* Euler: e^{iz} - e^{-iz} = 2i sin z,  e^{iz} + e^{-iz} = 2 cos z *)
Lemma euler_sub : forall z, cexp (Ci * z) - cexp (- (Ci * z)) = RtoC 2 * Ci * csin z.
Proof.
  intros [a b]. rewrite Ci_mul. cbn [fst snd].
  unfold cexp, csin, Cminus, Cplus, Copp, Cmult, Ci, RtoC, cosh, sinh. cbn [fst snd].
  rewrite cos_neg, sin_neg, Ropp_involutive, exp_Ropp. pose proof (exp_neq_0 b).
  f_equal; field; assumption.
Qed.
Lemma euler_add : forall z, cexp (Ci * z) + cexp (- (Ci * z)) = RtoC 2 * ccos z.
Proof.
  intros [a b]. rewrite Ci_mul. cbn [fst snd].
  unfold cexp, ccos, Cplus, Copp, Cmult, Ci, RtoC, cosh, sinh. cbn [fst snd].
  rewrite cos_neg, sin_neg, Ropp_involutive, exp_Ropp. pose proof (exp_neq_0 b).
  f_equal; field; assumption.
Qed.
(* e^z - e^{-z} = 2 sinh z,  e^z + e^{-z} = 2 cosh z *)
Lemma hyp_sub : forall z, cexp z - cexp (- z) = RtoC 2 * csinh z.
Proof.
  intros [a b]. unfold cexp, csinh, Cminus, Cplus, Copp, Cmult, RtoC, cosh, sinh. cbn [fst snd].
  rewrite cos_neg, sin_neg. f_equal; field.
Qed.
Lemma hyp_add : forall z, cexp z + cexp (- z) = RtoC 2 * ccosh z.
Proof.
  intros [a b]. unfold cexp, ccosh, Cplus, Copp, Cmult, RtoC, cosh, sinh. cbn [fst snd].
  rewrite cos_neg, sin_neg. f_equal; field.
Qed.

(* shifts by pi/2 *)
Lemma half_pi_C : RtoC PI / RtoC (IZR 2) = RtoC (PI / 2).
Proof.
  unfold Cdiv, Cinv, Cmult, RtoC. cbn [fst snd]. f_equal; field.
Qed.
Lemma csin_shift : forall z, csin (z + RtoC (PI / 2)) = ccos z.
Proof.
  intros [a b]. unfold csin, ccos, Cplus, RtoC. cbn [fst snd].
  rewrite Rplus_0_r, sin_plus, cos_plus, sin_PI2, cos_PI2. f_equal; ring.
Qed.
Lemma ccos_shift : forall z, ccos (z - RtoC (PI / 2)) = csin z.
Proof.
  intros [a b]. unfold csin, ccos, Cminus, Cplus, Copp, RtoC. cbn [fst snd].
  rewrite Ropp_0, Rplus_0_r, sin_plus, cos_plus, sin_neg, cos_neg, sin_PI2, cos_PI2. f_equal; ring.
Qed.

(* double angle *)
Lemma cosh_2 : forall b : R, cosh (2 * b) = (cosh b * cosh b + sinh b * sinh b)%R.
Proof.
  intro b. unfold cosh, sinh. replace (2 * b)%R with (b + b)%R by ring.
  replace (- (b + b))%R with (- b + - b)%R by ring. rewrite !exp_plus. field.
Qed.
Lemma sinh_2 : forall b : R, sinh (2 * b) = (2 * sinh b * cosh b)%R.
Proof.
  intro b. unfold cosh, sinh. replace (2 * b)%R with (b + b)%R by ring.
  replace (- (b + b))%R with (- b + - b)%R by ring. rewrite !exp_plus. field.
Qed.
Lemma csin_2 : forall z, csin (RtoC (IZR 2) * z) = RtoC 2 * csin z * ccos z.
Proof.
  intros [a b]. unfold csin, ccos, Cmult, RtoC. cbn [fst snd].
  replace (2 * a - 0 * b)%R with (2 * a)%R by ring. replace (2 * b + 0 * a)%R with (2 * b)%R by ring.
  rewrite sin_2a, cos_2a, cosh_2, sinh_2. f_equal; ring.
Qed.

Lemma cdivo_some : forall a b w, cdivo a b = Some w -> b <> RtoC 0 /\ w = a / b.
Proof.
  intros a b w H. unfold cdivo in H. destruct (Ceq_dec b (RtoC 0)); [discriminate|].
  injection H as <-. auto.
Qed.
Lemma cdivo_nz : forall a b, b <> RtoC 0 -> cdivo a b = Some (a / b).
Proof. intros a b H. unfold cdivo. destruct (Ceq_dec b (RtoC 0)); [contradiction|reflexivity]. Qed.

Section Rules.
  Variable ref : list nat -> option C.
  Variable na : recipe.          (* the rewritten argument *)
  Variable v : C.                (* its value *)
  Hypothesis Hna : cev ref na = Some v.

  Ltac ev := cbn [cev omap2 obind r_int]; rewrite ?Hna; cbn [cev omap2 obind].

  (* the rule for each function class in turn: the recipe [r] and the value [w'] of the function *)
  Ltac code_cases Hr Hf Hw :=
    repeat match type of Hr with
    | (if (?c =? ?t)%N then _ else _) = _ => destruct (N.eqb_spec c t) as [->|?]
    end; try discriminate; injection Hr as <-;
    cbv [cfun1 N.eqb Pos.eqb TC_Sin TC_Cos TC_Tan TC_Cot TC_Sec TC_Csc TC_Sinh TC_Cosh TC_Tanh TC_Coth TC_Sech TC_Csch] in Hf;
    try (apply cdivo_some in Hf; destruct Hf as [Hnz' Hf]); try (injection Hf as <-); try subst.

  (* RewriteAsExp *)
  Theorem rw_exp_sound : forall code r w w',
    rw_rule RwExp code na = Some r -> cev ref r = Some w -> cfun1 code v = Some w' -> w = w'.
  Proof.
    intros code r w w' Hr Hw Hf. unfold rw_rule in Hr.
    pose proof (euler_sub v) as ES. pose proof (euler_add v) as EA.
    pose proof (hyp_sub v) as HS. pose proof (hyp_add v) as HA.
    pose proof two_nz as T2. pose proof Ci_nz as TI.
    code_cases Hr Hf Hw; revert Hw; ev; intro Hw; apply cdivo_some in Hw; destruct Hw as [Hnz ->].
    - (* Sin *) rewrite ES. field. split; assumption.
    - (* Cos *) rewrite EA. field. assumption.
    - (* Tan *) rewrite ES, EA in *. field. auto.
    - (* Cot *) rewrite ES, EA in *. field. auto.
    - (* Csc *) rewrite ES in *. field. auto.
    - (* Sec *) rewrite EA in *. field. auto.
    - (* Sinh *) rewrite HS. field. assumption.
    - (* Cosh *) rewrite HA. field. assumption.
    - (* Tanh *) rewrite HS, HA in *. field. auto.
    - (* Csch *) rewrite HS in *. field. auto.
    - (* Sech *) rewrite HA in *. field. auto.
    - (* Coth *) rewrite HS, HA in *. field. auto.
  Qed.

  (* the building blocks of RewriteAsSin / RewriteAsCos *)
  Lemma cev_RF1 : forall c a, cev ref (RF1 c a) = obind (cev ref a) (cfun1 c).
  Proof. reflexivity. Qed.
  Lemma cev_RUneval : forall a, cev ref (RUneval a) = cev ref a.
  Proof. reflexivity. Qed.
  Lemma cev_RAdd : forall a b, cev ref (RAdd a b) = omap2 Cplus (cev ref a) (cev ref b).
  Proof. reflexivity. Qed.
  Lemma cev_RSub : forall a b, cev ref (RSub a b) = omap2 Cminus (cev ref a) (cev ref b).
  Proof. reflexivity. Qed.
  Lemma cev_RMul : forall a b, cev ref (RMul a b) = omap2 Cmult (cev ref a) (cev ref b).
  Proof. reflexivity. Qed.
  Lemma cev_RDiv : forall a b, cev ref (RDiv a b) = obind (cev ref a) (fun x => obind (cev ref b) (fun y => cdivo x y)).
  Proof. reflexivity. Qed.
  Lemma cev_int : forall z, cev ref (r_int z) = Some (RtoC (IZR z)).
  Proof. reflexivity. Qed.
  Lemma cev_RPow2 : forall a, cev ref (RPow a (r_int 2)) = obind (cev ref a) (fun x => Some (x * x)).
  Proof.
    intro a. change (cev ref (RPow a (r_int 2))) with (obind (cev ref a) (fun x => cpowz x 2)).
    destruct (cev ref a) as [x|]; [|reflexivity]. cbn [obind]. cbv [cpowz Pos.to_nat Pos.iter_op Nat.add Cpow].
    f_equal. ring.
  Qed.
  Lemma cfun1_Sin : forall z, cfun1 TC_Sin z = Some (csin z). Proof. reflexivity. Qed.
  Lemma cfun1_Cos : forall z, cfun1 TC_Cos z = Some (ccos z). Proof. reflexivity. Qed.

  Lemma cev_half_pi : cev ref (RDiv RPi (r_int 2)) = Some (RtoC (PI / 2)).
  Proof.
    rewrite cev_RDiv, cev_int. cbn [cev obind]. rewrite cdivo_nz by exact two_nz. now rewrite half_pi_C.
  Qed.
  Lemma cev_shift_sin : cev ref (RF1 TC_Sin (RUneval (RAdd na (RDiv RPi (r_int 2))))) = Some (ccos v).
  Proof.
    rewrite cev_RF1, cev_RUneval, cev_RAdd, cev_half_pi, Hna. cbn [omap2 obind]. now rewrite cfun1_Sin, csin_shift.
  Qed.
  Lemma cev_shift_cos : cev ref (RF1 TC_Cos (RUneval (RSub na (RDiv RPi (r_int 2))))) = Some (csin v).
  Proof.
    rewrite cev_RF1, cev_RUneval, cev_RSub, cev_half_pi, Hna. cbn [omap2 obind]. now rewrite cfun1_Cos, ccos_shift.
  Qed.
  Lemma cev_sin_na : cev ref (RF1 TC_Sin na) = Some (csin v).
  Proof. rewrite cev_RF1, Hna. reflexivity. Qed.
  Lemma cev_cos_na : cev ref (RF1 TC_Cos na) = Some (ccos v).
  Proof. rewrite cev_RF1, Hna. reflexivity. Qed.
  Lemma cev_sin_2na : cev ref (RF1 TC_Sin (RMul (r_int 2) na)) = Some (RtoC 2 * csin v * ccos v).
  Proof. rewrite cev_RF1, cev_RMul, cev_int, Hna. cbn [omap2 obind]. now rewrite cfun1_Sin, csin_2. Qed.
  Lemma cev_sin_sq : cev ref (RMul (r_int 2) (RPow (RF1 TC_Sin na) (r_int 2))) = Some (RtoC 2 * (csin v * csin v)).
  Proof. rewrite cev_RMul, cev_int, cev_RPow2, cev_sin_na. reflexivity. Qed.

  (* a quotient of two recipes whose values are known *)
  Lemma cev_RDiv_some : forall a b x y w,
    cev ref a = Some x -> cev ref b = Some y -> cev ref (RDiv a b) = Some w -> y <> RtoC 0 /\ w = x / y.
  Proof. intros a b x y w Ha Hb H. rewrite cev_RDiv, Ha, Hb in H. apply cdivo_some. exact H. Qed.

  (* RewriteAsSin *)
  Theorem rw_sin_sound : forall code r w w',
    rw_rule RwSin code na = Some r -> cev ref r = Some w -> cfun1 code v = Some w' -> w = w'.
  Proof.
    intros code r w w' Hr Hw Hf. unfold rw_rule in Hr.
    pose proof two_nz as T2. code_cases Hr Hf Hw.
    - (* Cos *) rewrite cev_shift_sin in Hw. now injection Hw.
    - (* Tan *) destruct (cev_RDiv_some _ _ _ _ _ cev_sin_sq cev_sin_2na Hw) as [Hnz ->].
      pose proof (Cmult_nz_r _ _ (Cmult_nz_l _ _ Hnz)). field. auto.
    - (* Cot *) destruct (cev_RDiv_some _ _ _ _ _ cev_sin_2na cev_sin_sq Hw) as [Hnz ->].
      pose proof (Cmult_nz_r _ _ Hnz) as Hss. pose proof (Cmult_nz_l _ _ Hss). field. auto.
    - (* Csc *) destruct (cev_RDiv_some _ _ _ _ _ (cev_int 1) cev_sin_na Hw) as [Hnz ->]. reflexivity.
    - (* Sec *) destruct (cev_RDiv_some _ _ _ _ _ (cev_int 1) cev_shift_sin Hw) as [Hnz ->]. reflexivity.
  Qed.

  (* RewriteAsCos *)
  Theorem rw_cos_sound : forall code r w w',
    rw_rule RwCos code na = Some r -> cev ref r = Some w -> cfun1 code v = Some w' -> w = w'.
  Proof.
    intros code r w w' Hr Hw Hf. unfold rw_rule in Hr.
    code_cases Hr Hf Hw.
    - (* Sin *) rewrite cev_shift_cos in Hw. now injection Hw.
    - (* Tan *) destruct (cev_RDiv_some _ _ _ _ _ cev_shift_cos cev_cos_na Hw) as [Hnz ->]. reflexivity.
    - (* Cot *) destruct (cev_RDiv_some _ _ _ _ _ cev_cos_na cev_shift_cos Hw) as [Hnz ->]. reflexivity.
    - (* Csc *) destruct (cev_RDiv_some _ _ _ _ _ (cev_int 1) cev_shift_cos Hw) as [Hnz ->]. reflexivity.
    - (* Sec *) destruct (cev_RDiv_some _ _ _ _ _ (cev_int 1) cev_cos_na Hw) as [Hnz ->]. reflexivity.
  Qed.
End Rules.
