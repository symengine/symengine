(* C36 obligation: pow_number (as_real_imag.cpp), the binary powering loop RealImagVisitor::bvisit(Pow) uses for
   integer exponents, computes (re + I*im)^n for EVERY n below 2^64 (n comes from mp_get_ui; the `unsigned long`
   mask and the test `mask > 0` after the shift that wraps at 64 bits are modelled): for any valuation [val] into the
   complex numbers and any class [ok] of expressions on which the model's mul / add / sub are sound (premises: the
   content of C07), if the model's pow_number returns (re', im') then re' + I*im' = (re + I*im)^n and the parts are
   again in the class.  Also stated on plain complex numbers: the loop pn_loop returns z^n. *)
From SE Require Import C36.RewriteModel C36.RewriteSpec C36.PowNumberProofs.
From Coq Require Import Rdefinitions.
From Coquelicot Require Import Complex.
Theorem C36_pow_number_sound :
  (forall (n : N) (z : C), (n < W64)%N -> pn_loop 65 n 1%N z (RtoC 1%R) = Some (cpn z n)) /\
  (forall (val : expr -> C) (ok : expr -> Prop),
    (forall a b r, a_mul a b = Ok r -> ok a -> ok b -> ok r /\ val r = Cmult (val a) (val b)) ->
    (forall a b r, a_add a b = Ok r -> ok a -> ok b -> ok r /\ val r = Cplus (val a) (val b)) ->
    (forall a b r, a_sub a b = Ok r -> ok a -> ok b -> ok r /\ val r = Cminus (val a) (val b)) ->
    ok (e_int 2) /\ val (e_int 2) = RtoC 2%R ->
    forall (re im : expr) (n : N) (r : expr * expr),
      ri_pow_number re im n = Ok r -> ok re -> ok im -> ok e_one -> ok e_zero ->
      val e_one = RtoC 1%R -> val e_zero = RtoC 0%R -> (n < W64)%N ->
      (ok (fst r) /\ ok (snd r)) /\
      Cplus (val (fst r)) (Cmult Ci (val (snd r))) = cpn (Cplus (val re) (Cmult Ci (val im))) n).
Proof.
  split; [exact pn_loop_pow|].
  intros val ok Hm Ha Hs H2 re im n r H Ore Oim O1 O0 V1 V0 Hn.
  exact (pow_number_sound val ok Hm Ha Hs H2 re im n r H Ore Oim O1 O0 V1 V0 Hn).
Qed.
Print Assumptions C36_pow_number_sound.
