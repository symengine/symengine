(* C36 -- trig_to_sqrt: the 24 rules outer(inner(x)) -> algebraic expression, on the principal real
   domains.  Inverse functions: asin, acos on [-1, 1], atan everywhere, acot x = atan(1/x), asec x = acos(1/x),
   acsc x = asin(1/x) (x <> 0, |1/x| <= 1).  Outer functions: sin, cos, tan = sin/cos, cot = cos/sin,
   sec = 1/cos, csc = 1/sin (undefined where the divisor is 0).  [rev x r] is the real value of a recipe
   whose only reference is the inner argument x: sqrt is defined on non-negative reals, division for a
   non-zero divisor. *)
From Coq Require Import Reals Lra.
From SE Require Import C36.RewriteModel.
Local Open Scope R_scope.

Definition rdivo (a b : R) : option R := if Req_EM_T b 0 then None else Some (a / b).
Definition rsqrto (a : R) : option R := if Rle_dec 0 a then Some (sqrt a) else None.
Definition robind {A B : Type} (o : option A) (f : A -> option B) : option B :=
  match o with Some a => f a | None => None end.

Fixpoint rev (x : R) (r : recipe) : option R :=
  match r with
  | RRef _ => Some x
  | RNum (NInt z) => Some (IZR z)
  | RAdd a b => robind (rev x a) (fun u => robind (rev x b) (fun v => Some (u + v)))
  | RSub a b => robind (rev x a) (fun u => robind (rev x b) (fun v => Some (u - v)))
  | RMul a b => robind (rev x a) (fun u => robind (rev x b) (fun v => Some (u * v)))
  | RDiv a b => robind (rev x a) (fun u => robind (rev x b) (fun v => rdivo u v))
  | RSqrt a => robind (rev x a) rsqrto
  | RPow a (RNum (NInt 2)) => robind (rev x a) (fun u => Some (u * u))
  | RPow a (RNum (NInt (-2))) => robind (rev x a) (fun u => rdivo 1 (u * u))
  | _ => None
  end.

(* the inverse functions on their principal real domains *)
Definition in_unit (x : R) : Prop := -1 <= x <= 1.
Definition unit_dec (x : R) : {in_unit x} + {~ in_unit x}.
Proof.
  unfold in_unit. destruct (Rle_dec (-1) x); destruct (Rle_dec x 1); (left; lra) || (right; lra).
Defined.
Definition rinv (inner : N) (x : R) : option R :=
  if (inner =? TC_ASin)%N then (if unit_dec x then Some (asin x) else None)
  else if (inner =? TC_ACos)%N then (if unit_dec x then Some (acos x) else None)
  else if (inner =? TC_ATan)%N then Some (atan x)
  else if (inner =? TC_ACot)%N then robind (rdivo 1 x) (fun u => Some (atan u))
  else if (inner =? TC_ASec)%N then robind (rdivo 1 x) (fun u => if unit_dec u then Some (acos u) else None)
  else if (inner =? TC_ACsc)%N then robind (rdivo 1 x) (fun u => if unit_dec u then Some (asin u) else None)
  else None.
Definition rfun (outer : N) (t : R) : option R :=
  if (outer =? TC_Sin)%N then Some (sin t)
  else if (outer =? TC_Cos)%N then Some (cos t)
  else if (outer =? TC_Tan)%N then rdivo (sin t) (cos t)
  else if (outer =? TC_Cot)%N then rdivo (cos t) (sin t)
  else if (outer =? TC_Sec)%N then rdivo 1 (cos t)
  else if (outer =? TC_Csc)%N then rdivo 1 (sin t)
  else None.

(* sine and cosine of the six inverse functions *)
Lemma sc_asin : forall x, in_unit x -> sin (asin x) = x /\ cos (asin x) = sqrt (1 - x * x).
Proof. intros x H. split; [apply sin_asin; exact H | rewrite cos_asin by exact H; reflexivity]. Qed.
Lemma sc_acos : forall x, in_unit x -> sin (acos x) = sqrt (1 - x * x) /\ cos (acos x) = x.
Proof. intros x H. split; [rewrite sin_acos by exact H; reflexivity | apply cos_acos; exact H]. Qed.
Lemma sc_atan : forall x, sin (atan x) = x / sqrt (1 + x * x) /\ cos (atan x) = 1 / sqrt (1 + x * x) /\ 0 < sqrt (1 + x * x).
Proof.
  intro x. split; [rewrite sin_atan; reflexivity|]. split; [rewrite cos_atan; reflexivity|].
  apply sqrt_lt_R0. nra.
Qed.

Lemma rdivo_some : forall a b w, rdivo a b = Some w -> b <> 0 /\ w = a / b.
Proof. intros a b w H. unfold rdivo in H. destruct (Req_EM_T b 0); [discriminate|]. injection H as <-. auto. Qed.
Lemma rsqrto_some : forall a w, rsqrto a = Some w -> 0 <= a /\ w = sqrt a.
Proof. intros a w H. unfold rsqrto in H. destruct (Rle_dec 0 a); [|discriminate]. injection H as <-. auto. Qed.
Lemma robind_some : forall {A B} (o : option A) (f : A -> option B) b, robind o f = Some b -> exists a, o = Some a /\ f a = Some b.
Proof. intros A B o f b H. destruct o; cbn in H; [eauto|discriminate]. Qed.

Lemma inv_sq : forall x, x <> 0 -> 1 / x * (1 / x) = 1 / (x * x).
Proof. intros x H. field. exact H. Qed.

Ltac inv_all :=
  repeat match goal with
  | H : robind _ _ = Some _ |- _ => apply robind_some in H; destruct H as (? & ? & ?)
  | H : rdivo _ _ = Some _ |- _ => apply rdivo_some in H; destruct H as [? ?]
  | H : rsqrto _ = Some _ |- _ => apply rsqrto_some in H; destruct H as [? ?]
  | H : Some _ = Some _ |- _ => injection H as H
  | H : (if unit_dec ?u then _ else _) = Some _ |- _ => destruct (unit_dec u); [|discriminate]
  end.

(* [H : (if (code =? c1)%N then _ else if (code =? c2)%N then _ ...) = _]: one goal per constant of the chain,
   with [code] replaced by it, and one for the final else *)
Ltac case_code H :=
  repeat match type of H with
  | (if (?a =? ?c)%N then _ else _) = _ => destruct (N.eqb_spec a c) as [->|_]
  end.

Theorem t2s_rule_sound : forall outer inner p r x w t w',
  t2s_rule outer inner (RRef p) = Some r -> rev x r = Some w ->
  rinv inner x = Some t -> rfun outer t = Some w' -> w = w'.
Proof.
  intros outer inner p r x w t w' Hr Hw Ht Hf.
  (* the outer and the inverse function are each one of six; the table has a recipe for 24 of the 36 pairs *)
  unfold rfun in Hf. case_code Hf; [ .. | discriminate Hf].
  all: unfold rinv in Ht; case_code Ht; [ .. | discriminate Ht].
  all: cbv in Hr; try discriminate Hr; injection Hr as <-.
  (* what it means that the recipe, the angle and the function value are defined *)
  all: cbn [rev robind] in Hw, Ht; inv_all; subst.
  (* sine and cosine of the angle in terms of x; what is left is an identity of fractions *)
  all: try (destruct (sc_asin _ ltac:(eassumption)) as [Es Ec]; rewrite ?Es, ?Ec in * ).
  all: try (destruct (sc_acos _ ltac:(eassumption)) as [Es2 Ec2]; rewrite ?Es2, ?Ec2 in * ).
  all: try (match goal with |- context [atan ?u] => destruct (sc_atan u) as (Es & Ec & Hpos); rewrite ?Es, ?Ec in * end).
  all: rewrite ?inv_sq in * by assumption.
  all: try (field; repeat split; try assumption; try lra).
Qed.
