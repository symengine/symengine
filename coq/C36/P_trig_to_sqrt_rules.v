(* C36 obligation: every rule of trig_to_sqrt (functions.cpp; 6 outer functions x 4 inverse functions = 24 rules)
   preserves the value on the principal real domain: for all real x, if the inverse function is defined at x
   (asin, acos on [-1,1]; atan everywhere; acot x = atan(1/x), asec x = acos(1/x), acsc x = asin(1/x) for x <> 0
   with |1/x| <= 1), the outer function is defined at that angle (tan = sin/cos, cot = cos/sin, sec = 1/cos,
   csc = 1/sin with non-zero divisors) and the rewritten expression is defined (square roots of non-negative
   reals, non-zero divisors), then both have the same value.  [t2s_rule outer inner x] is the rule table of the
   model (RewriteModel.v), [rev x r] the real value of the recipe r when its reference denotes x. *)
From SE Require Import C36.RewriteModel C36.TrigSqrtProofs.
From Coq Require Import Rdefinitions.
Theorem C36_trig_to_sqrt_rules :
  forall (outer inner : N) (p : list nat) (r : recipe) (x w t w' : R),
    t2s_rule outer inner (RRef p) = Some r -> rev x r = Some w ->
    rinv inner x = Some t -> rfun outer t = Some w' -> w = w'.
Proof. exact t2s_rule_sound. Qed.
Print Assumptions C36_trig_to_sqrt_rules.
