(* C30 obligation: "poles excluded".
   _refuted: the set difference is taken on trees, so a pole written in another closed form is
   returned: for (x^2 - 2)/(x^3 - x^2 - 2x + 2) the model (and the library: known finding
   C30/rational-pole-other-closed-form) returns sqrt(2), a zero of the denominator in every field.
   _guarded: when all roots of numerator and denominator are rational numbers the returned set is
   exactly { x | num(x) = 0 and den(x) <> 0 }. *)
From Coq Require Import QArith List.
From SE Require Import Base.Prelude C30.SolveModel C30.SolveProofs C30.SolveSpec.
Import ListNotations.
Theorem C30_solve_rational_poles_excluded_refuted :
  forall (K : radfield),
  (exists alt, solve_rational [-2#1; 0; 1] [2#1; -2#1; -1#1; 1] = Ok (SFinite [alt]) /\ In (RSqrt (RQ (2#1))) alt)
  /\ (rad_okK K (RSqrt (RQ (2#1))) -> pevalK K [2#1; -2#1; -1#1; 1] (evalK K (RSqrt (RQ (2#1)))) = f0 K).
Proof. intro K. exact (rational_pole_witness K _ _ _ _ _ _ _ _ (Fth K) (feq_dec K) (fsqrt K) (fcbrt K) (fi K)). Qed.
Print Assumptions C30_solve_rational_poles_excluded_refuted.

Theorem C30_solve_rational_poles_excluded_guarded :
  forall (K : radfield), radicals_total K ->
  forall (num den : list Q) (la lb : list rx),
  has_symbol_poly den = true ->
  solve_poly num = Ok (SFinite [la]) -> solve_poly den = Ok (SFinite [lb]) ->
  forallb is_rq la = true -> forallb is_rq lb = true ->
  forall x : K, valsK K (set_diff la lb) x <-> (pevalK K num x = f0 K /\ pevalK K den x <> f0 K).
Proof. intros K [Hs [Hc Hi]]. exact (solve_rational_exact_guarded K _ _ _ _ _ _ _ _ (Fth K) (feq_dec K) (fchar0 K) (fsqrt K) (fcbrt K) (fi K) Hs Hc Hi). Qed.
Print Assumptions C30_solve_rational_poles_excluded_guarded.
