(* C30: the hypotheses of the theorems are satisfiable.
   The rational numbers Qc (canonical fractions, Leibniz equality) form a [radfield] (the radical
   operations are never consulted when no radical occurs in a template); on it the hypotheses of
   the linear / quadratic / cubic theorems hold for concrete polynomials whose closed forms fold
   to rationals, and the conclusions can be evaluated.  [radicals_total] (quartic and dispatch
   theorems) asks for square and cube roots of every element: it holds in the complex numbers
   for any choice of branches, which are not constructed here. *)
From Coq Require Import QArith Qcanon List Field_theory InitialRing Lia Lqa.
From SE Require Import Base.Prelude C30.SolveModel C30.SolveProofs C30.SolveSpec.
Import ListNotations.

Lemma this_plus : forall x y : Qc, (this (x + y)%Qc == this x + this y)%Q.
Proof. intros x y. unfold Qcplus, Q2Qc. cbn [this]. apply Qred_correct. Qed.
Lemma this_mult : forall x y : Qc, (this (x * y)%Qc == this x * this y)%Q.
Proof. intros x y. unfold Qcmult, Q2Qc. cbn [this]. apply Qred_correct. Qed.

Lemma Qc_pos1 : forall p, (0 < this (gen_phiPOS1 1%Qc Qcplus Qcmult p))%Q.
Proof.
  induction p; cbn [gen_phiPOS1].
  - rewrite this_plus, this_mult, this_plus.
    set (v := this (gen_phiPOS1 1%Qc Qcplus Qcmult p)) in *. change (this 1%Qc) with 1%Q. lra.
  - rewrite this_mult, this_plus.
    set (v := this (gen_phiPOS1 1%Qc Qcplus Qcmult p)) in *. change (this 1%Qc) with 1%Q. lra.
  - reflexivity.
Qed.

Lemma Qc_char0 : forall p, gen_phiZ 0%Qc 1%Qc Qcplus Qcmult Qcopp (Zpos p) <> 0%Qc.
Proof.
  intros p H. cbn [gen_phiZ] in H.
  rewrite <- (same_gen (Eqsth Qc) (Eq_ext Qcplus Qcmult Qcopp) (Rth_ARth (Eqsth Qc) (Eq_ext Qcplus Qcmult Qcopp) (F_R Qcft))) in H.
  pose proof (Qc_pos1 p) as X. rewrite H in X. change (this 0%Qc) with 0%Q in X. lra.
Qed.

Local Open Scope Q_scope.

Definition QcK : radfield :=
  {| carrier := Qc; f0 := 0%Qc; f1 := 1%Qc; fadd := Qcplus; fmul := Qcmult; fsub := Qcminus;
     fopp := Qcopp; fdiv := Qcdiv; finv := Qcinv; Fth := Qcft; feq_dec := Qc_eq_dec;
     fchar0 := Qc_char0; fsqrt := fun x => x; fcbrt := fun x => x; fi := 0%Qc |}.

(* x^2 - 5x + 6: the hypotheses of C30_quadratic_sound_complete hold, the roots are 3 and 2 *)
Example nv_quadratic_hyps :
  ~ (1 == 0)%Q /\ rad_okK QcK (fst (quadratic_roots 6 (-5) 1)) /\ rad_okK QcK (snd (quadratic_roots 6 (-5) 1)).
Proof. split; [discriminate | vm_compute; tauto]. Qed.
Example nv_quadratic_roots :
  evalK QcK (fst (quadratic_roots 6 (-5) 1)) = Q2Qc 3 /\ evalK QcK (snd (quadratic_roots 6 (-5) 1)) = Q2Qc 2.
Proof. split; apply Qc_is_canon; vm_compute; reflexivity. Qed.
Example nv_quadratic_model : solve_poly [6; -5; 1] = Ok (SFinite [[RQ 3; RQ 2]]).
Proof. vm_compute. reflexivity. Qed.

(* (x - 1)^2 (x + 2) = x^3 - 3x + 2: double-root branch of the cubic *)
Example nv_cubic_hyps :
  let t := cubic_roots 2 (-3) 0 1 in
  ~ (1 == 0)%Q /\ rad_okK QcK (t1 t) /\ rad_okK QcK (t2 t) /\ rad_okK QcK (t3 t).
Proof. split; [discriminate | vm_compute; tauto]. Qed.
Example nv_cubic_model : solve_poly [2; -3; 0; 1] = Ok (SFinite [[RQ 1; RQ (-2)]]).
Proof. vm_compute. reflexivity. Qed.

(* x^3 - x: zero constant term *)
Example nv_cubic_d0_hyps :
  let t := cubic_roots 0 (-1) 0 1 in
  rad_okK QcK (t1 t) /\ rad_okK QcK (t2 t) /\ rad_okK QcK (t3 t).
Proof. vm_compute. tauto. Qed.

(* the quartic branches of the model on concrete inputs *)
Example nv_quartic_biquadratic : solve_poly [4; 0; -5; 0; 1] = Ok (SFinite [[RQ 2; RQ (-2); RQ 1; RQ (-1)]]).
Proof. vm_compute. reflexivity. Qed.
Example nv_quartic_euler_alternatives :
  exists alts, solve_poly [1; 1; 1; 1; 1] = Ok (SFinite alts) /\ length alts = 6%nat.
Proof. eexists. split; [vm_compute; reflexivity | reflexivity]. Qed.
Example nv_degree0 : solve_poly [0] = Ok SDomain /\ solve_poly [5] = Ok SEmpty /\ solve_poly [1; 0; 0; 0; 0; 1] = Ok SCondition.
Proof. repeat split; vm_compute; reflexivity. Qed.

(* the hypotheses of C30_quartic_roots_sound / C30_solve_poly_exact hold on Qc for quartics
   whose closed forms fold to rationals: the biquadratic branch, and Euler's branch with a
   double root (the resolvent then has rational roots that are squares) *)
Example nv_quartic_local_hyps_biquadratic :
  forall e, In e (solve_poly_radicals [4; 0; -5; 0; 1]) -> rad_okK QcK e.
Proof. intros e H. vm_compute in H. repeat (destruct H as [<- | H]; [exact I|]). contradiction. Qed.
Example nv_quartic_local_hyps_euler :
  forall e, In e (solve_poly_radicals [-10; 23; -15; 1; 1]) -> rad_okK QcK e.
Proof. intros e H. vm_compute in H. repeat (destruct H as [<- | H]; [exact I|]). contradiction. Qed.
Example nv_quartic_euler_model :
  solve_poly [-10; 23; -15; 1; 1] = Ok (SFinite [[RQ 1; RQ 2; RQ (-5)]; [RQ 1; RQ 2; RQ (-5)]]).
Proof. vm_compute. reflexivity. Qed.
(* and the conclusion of C30_solve_poly_exact, instantiated: over Qc the roots of
   x^4 - 5x^2 + 4 are exactly 2, -2, 1, -1 *)
Example nv_solve_poly_exact_instance :
  forall x : Qc, pevalK QcK [4; 0; -5; 0; 1] x = 0%Qc <-> valsK QcK [RQ 2; RQ (-2); RQ 1; RQ (-1)] x.
Proof.
  pose proof (solve_poly_exact_local Qc _ _ _ _ _ _ _ _ Qcft Qc_eq_dec Qc_char0 _ _ _ [4; 0; -5; 0; 1] _
                nv_quartic_local_hyps_biquadratic nv_quartic_biquadratic) as H.
  destruct H as [_ H]. apply H. left. reflexivity.
Qed.
