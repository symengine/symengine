(* C30 obligation: the two returned quadratic roots coincide exactly when the discriminant
   c1^2 - 4 c0 c2 is zero (so the FiniteSet has one member exactly for a double root). *)
From Coq Require Import QArith List.
From SE Require Import Base.Prelude C30.SolveModel C30.SolveProofs C30.SolveSpec.
Import ListNotations.
Theorem C30_quadratic_multiplicity :
  forall (K : radfield) (c0 c1 c2 : Q), ~ (c2 == 0)%Q ->
    let rr := quadratic_roots c0 c1 c2 in
    rad_okK K (fst rr) -> rad_okK K (snd rr) ->
    (evalK K (fst rr) = evalK K (snd rr) <-> (c1 * c1 - 4 * c0 * c2 == 0)%Q).
Proof. intro K. exact (quadratic_double_iff K _ _ _ _ _ _ _ _ (Fth K) (feq_dec K) (fchar0 K) (fsqrt K) (fcbrt K) (fi K)). Qed.
Print Assumptions C30_quadratic_multiplicity.
