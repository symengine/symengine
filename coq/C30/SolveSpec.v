(* C30 -- the vocabulary of the property theorems.

   [radfield]: a field of characteristic 0 (decidable equality) together with three arbitrary
   "radical" operations: fsqrt, fcbrt : F -> F and an element fi.  Nothing is assumed about them
   in the record; a theorem either asks [rad_ok e] for the templates e it talks about (every
   radical occurring in e satisfies sqrt(a)^2 = a, cbrt(a)^3 = a, i^2 = -1) or [radicals_total]
   (the three laws hold everywhere, as in the complex numbers with any choice of branches).

   [evalK K e]  : the value of a template of SolveModel.v
   [pevalK K cs x] : sum_i cs[i] x^i
   [valsK K l v]  : v is the value of a member of the list l *)
From Coq Require Import Field_theory InitialRing QArith ZArith List.
From SE Require Import Base.Prelude C30.SolveModel C30.SolveProofs.
Import ListNotations.

Record radfield : Type := {
  carrier :> Type;
  f0 : carrier;
  f1 : carrier;
  fadd : carrier -> carrier -> carrier;
  fmul : carrier -> carrier -> carrier;
  fsub : carrier -> carrier -> carrier;
  fopp : carrier -> carrier;
  fdiv : carrier -> carrier -> carrier;
  finv : carrier -> carrier;
  Fth : field_theory f0 f1 fadd fmul fsub fopp fdiv finv (@eq carrier);
  feq_dec : forall x y : carrier, {x = y} + {x <> y};
  fchar0 : forall p : positive, gen_phiZ f0 f1 fadd fmul fopp (Zpos p) <> f0;
  fsqrt : carrier -> carrier;
  fcbrt : carrier -> carrier;
  fi : carrier;
}.

Definition ofQK (K : radfield) : Q -> K := ofQ K (f0 K) (f1 K) (fadd K) (fmul K) (fopp K) (fdiv K).
Definition evalK (K : radfield) : rx -> K :=
  eval K (f0 K) (f1 K) (fadd K) (fmul K) (fsub K) (fopp K) (fdiv K) (fsqrt K) (fcbrt K) (fi K).
Definition rad_okK (K : radfield) : rx -> Prop :=
  rad_ok K (f0 K) (f1 K) (fadd K) (fmul K) (fsub K) (fopp K) (fdiv K) (fsqrt K) (fcbrt K) (fi K).
Definition pevalK (K : radfield) : list Q -> K -> K :=
  peval K (f0 K) (f1 K) (fadd K) (fmul K) (fopp K) (fdiv K).
Definition valsK (K : radfield) : list rx -> K -> Prop :=
  vals K (f0 K) (f1 K) (fadd K) (fmul K) (fsub K) (fopp K) (fdiv K) (fsqrt K) (fcbrt K) (fi K).
Definition sres_specK (K : radfield) : list Q -> sres -> Prop :=
  sres_spec K (f0 K) (f1 K) (fadd K) (fmul K) (fsub K) (fopp K) (fdiv K) (fsqrt K) (fcbrt K) (fi K).

Definition radicals_total (K : radfield) : Prop :=
  (forall x : K, fmul K (fsqrt K x) (fsqrt K x) = x) /\
  (forall x : K, fmul K (fmul K (fcbrt K x) (fcbrt K x)) (fcbrt K x) = x) /\
  fmul K (fi K) (fi K) = fopp K (f1 K).

(* unfolding of [sres_specK], for reading the theorems:
   SDomain      : every x is a root
   SEmpty       : no x is a root
   SFinite alts : alts is not empty and the members of every alternative denote exactly the roots
   SCondition   : the degree is above 4 *)
Lemma sres_specK_unfold : forall K cs s,
  sres_specK K cs s =
  match s with
  | SDomain => forall x, pevalK K cs x = f0 K
  | SEmpty => forall x, pevalK K cs x <> f0 K
  | SFinite alts => alts <> [] /\ forall alt, In alt alts -> forall x, pevalK K cs x = f0 K <-> valsK K alt x
  | SCondition => (5 < length (extract_coeffs cs))%nat
  end.
Proof. intros K cs s. destruct s; reflexivity. Qed.
