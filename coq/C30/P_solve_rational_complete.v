(* C30 obligation: solve_rational (roots of the numerator minus roots of the denominator, as sets
   of trees) returns every zero of num/den that is not a pole, and only zeros of the numerator. *)
From Coq Require Import QArith List.
From SE Require Import Base.Prelude C30.SolveModel C30.SolveProofs C30.SolveSpec.
Import ListNotations.
Theorem C30_solve_rational_complete :
  forall (K : radfield), radicals_total K ->
  forall (num den : list Q) (s : sres),
  has_symbol_poly den = true -> solve_rational num den = Ok s ->
  match s with
  | SFinite alts => forall alt, In alt alts ->
       (forall x : K, pevalK K num x = f0 K -> pevalK K den x <> f0 K -> valsK K alt x) /\
       (forall x : K, valsK K alt x -> pevalK K num x = f0 K)
  | SEmpty => forall x : K, pevalK K num x = f0 K -> pevalK K den x <> f0 K -> False
  | _ => True
  end.
Proof. intros K [Hs [Hc Hi]]. exact (solve_rational_complete K _ _ _ _ _ _ _ _ (Fth K) (feq_dec K) (fchar0 K) (fsqrt K) (fcbrt K) (fi K) Hs Hc Hi). Qed.
Print Assumptions C30_solve_rational_complete.
