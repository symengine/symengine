(* C30 -- semantics of the expression templates of SolveModel.v in an arbitrary field of
   characteristic 0, and the proofs about the model.

   One section over a field (F, 0, 1, +, *, -, /) given by plain variables (the [field] and
   [nsatz] tactics work on them directly).  Radicals are interpreted by arbitrary functions
   [fsqrt], [fcbrt] and an arbitrary element [fi]; [rad_ok e] says that every radical
   *occurring in e* satisfies its defining relation (sqrt(a)^2 = a, cbrt(a)^3 = a, i^2 = -1).
   Nothing is assumed about which branch a radical denotes.  SolveSpec.v packages the field
   into a record; the P_*.v files state the theorems over it. *)
From Coq Require Import Field Ring Setoid Morphisms NsatzTactic Ncring Cring Integral_domain InitialRing.
From Coq Require Import QArith ZArith List Bool Lia.
From SE Require Import Base.Prelude C30.SolveModel.
Import ListNotations.

Section Sem.
Variable F : Type.
Variables (f0 f1 : F) (fadd fmul fsub : F -> F -> F) (fopp : F -> F) (fdiv : F -> F -> F) (finv : F -> F).
Hypothesis Fth : field_theory f0 f1 fadd fmul fsub fopp fdiv finv (@eq F).
Hypothesis feq_dec : forall x y : F, {x = y} + {x <> y}.
Hypothesis fchar0 : forall p : positive, gen_phiZ f0 f1 fadd fmul fopp (Zpos p) <> f0.

Notation "0" := f0.
Notation "1" := f1.
Infix "+" := fadd.
Infix "*" := fmul.
Infix "-" := fsub.
Infix "/" := fdiv.
Notation "- x" := (fopp x).

Add Field Kfield : Fth.

Global Instance K_ops : @Ring_ops F 0 1 fadd fmul fsub fopp (@eq F) := {}.
Global Instance K_ring : @Ring F 0 1 fadd fmul fsub fopp (@eq F) K_ops.
Proof.
  constructor.
  all: try exact eq_equivalence.
  all: try (cbv; intros; subst; reflexivity).
  all: intros; cbv; try ring.
Qed.
Global Instance K_cring : @Cring F 0 1 fadd fmul fsub fopp (@eq F) K_ops K_ring.
Proof. intros x y. cbv. ring. Qed.

Lemma F_integral : forall x y : F, x * y = 0 -> x = 0 \/ y = 0.
Proof.
  intros x y H.
  destruct (feq_dec x 0) as [Hx | Hx]; [left; exact Hx|].
  right.
  assert (E : y = (x * y) / x) by (field; exact Hx).
  rewrite E, H. field. exact Hx.
Qed.

Global Instance K_id : @Integral_domain F 0 1 fadd fmul fsub fopp (@eq F) K_ops K_ring K_cring.
Proof using feq_dec.
  constructor.
  - intros x y H. apply F_integral. exact H.
  - intro H. apply (F_1_neq_0 Fth). exact H.
Qed.

Definition ofZ (z : Z) : F := gen_phiZ 0 1 fadd fmul fopp z.

Definition Zmorph := gen_phiZ_morph (Eqsth F) (Eq_ext fadd fmul fopp) (F_R Fth).

Lemma ofZ_0 : ofZ 0%Z = 0. Proof. exact (morph0 Zmorph). Qed.
Lemma ofZ_1 : ofZ 1%Z = 1. Proof. exact (morph1 Zmorph). Qed.
Lemma ofZ_add : forall a b, ofZ (a + b)%Z = ofZ a + ofZ b. Proof. exact (morph_add Zmorph). Qed.
Lemma ofZ_sub : forall a b, ofZ (a - b)%Z = ofZ a - ofZ b. Proof. exact (morph_sub Zmorph). Qed.
Lemma ofZ_mul : forall a b, ofZ (a * b)%Z = ofZ a * ofZ b. Proof. exact (morph_mul Zmorph). Qed.
Lemma ofZ_opp : forall a, ofZ (- a)%Z = - ofZ a. Proof. exact (morph_opp Zmorph). Qed.

Lemma ofZ_pos_neq0 : forall p, ofZ (Zpos p) <> 0.
Proof. exact fchar0. Qed.

Lemma ofZ_neq0 : forall z, z <> 0%Z -> ofZ z <> 0.
Proof.
  intros [|p|p] H; [congruence | apply ofZ_pos_neq0 |].
  change (Zneg p) with (- Zpos p)%Z. rewrite ofZ_opp. intro E.
  apply (ofZ_pos_neq0 p).
  transitivity (- - ofZ (Zpos p)); [ring | rewrite E; ring].
Qed.

Lemma ofZ_inj : forall a b, ofZ a = ofZ b -> a = b.
Proof.
  intros a b H.
  destruct (Z.eq_dec (a - b) 0) as [E | E]; [lia|].
  exfalso. apply (ofZ_neq0 _ E). rewrite ofZ_sub, H. ring.
Qed.

Definition ofQ (q : Q) : F := ofZ (Qnum q) / ofZ (Zpos (Qden q)).

Lemma ofQ_Qeq : forall p q, (p == q)%Q -> ofQ p = ofQ q.
Proof.
  intros [a b] [c d] H. unfold Qeq in H. cbn [Qnum Qden] in H. unfold ofQ. cbn [Qnum Qden].
  assert (E : ofZ a * ofZ (Zpos d) = ofZ c * ofZ (Zpos b)) by (rewrite <- !ofZ_mul; f_equal; exact H).
  pose proof (ofZ_pos_neq0 b). pose proof (ofZ_pos_neq0 d).
  field_simplify_eq; [rewrite E; ring | split; assumption].
Qed.

Lemma ofQ_inj : forall p q, ofQ p = ofQ q -> (p == q)%Q.
Proof.
  intros [a b] [c d] H. unfold ofQ in H. cbn [Qnum Qden] in H. unfold Qeq. cbn [Qnum Qden].
  apply ofZ_inj. rewrite !ofZ_mul.
  pose proof (ofZ_pos_neq0 b) as Hb. pose proof (ofZ_pos_neq0 d) as Hd.
  transitivity ((ofZ a / ofZ (Zpos b)) * (ofZ (Zpos b) * ofZ (Zpos d))); [field; exact Hb|].
  rewrite H. field. exact Hd.
Qed.

Lemma ofQ_Qred : forall q, ofQ (Qred q) = ofQ q.
Proof. intro q. apply ofQ_Qeq. apply Qred_correct. Qed.

Lemma ofQ_int : forall z, ofQ (z # 1) = ofZ z.
Proof. intro z. unfold ofQ. cbn [Qnum Qden]. rewrite ofZ_1. field. apply (F_1_neq_0 Fth). Qed.

Lemma ofQ_0 : ofQ 0%Q = 0.
Proof. rewrite ofQ_int. apply ofZ_0. Qed.

Lemma ofQ_1 : ofQ 1%Q = 1.
Proof. rewrite ofQ_int. apply ofZ_1. Qed.

Lemma ofQ_add : forall p q, ofQ (p + q)%Q = ofQ p + ofQ q.
Proof.
  intros [a b] [c d]. unfold ofQ, Qplus. cbn [Qnum Qden].
  rewrite Pos2Z.inj_mul, ofZ_add, !ofZ_mul.
  pose proof (ofZ_pos_neq0 b). pose proof (ofZ_pos_neq0 d).
  field. split; assumption.
Qed.

Lemma ofQ_mul : forall p q, ofQ (p * q)%Q = ofQ p * ofQ q.
Proof.
  intros [a b] [c d]. unfold ofQ, Qmult. cbn [Qnum Qden].
  rewrite Pos2Z.inj_mul, !ofZ_mul.
  pose proof (ofZ_pos_neq0 b). pose proof (ofZ_pos_neq0 d).
  field. split; assumption.
Qed.

Lemma ofQ_opp : forall p, ofQ (- p)%Q = - ofQ p.
Proof.
  intros [a b]. unfold ofQ, Qopp. cbn [Qnum Qden]. rewrite ofZ_opp.
  pose proof (ofZ_pos_neq0 b). field. assumption.
Qed.

Lemma ofQ_sub : forall p q, ofQ (p - q)%Q = ofQ p - ofQ q.
Proof. intros. unfold Qminus. rewrite ofQ_add, ofQ_opp. ring. Qed.

Lemma ofQ_neq0 : forall q, ~ (q == 0)%Q -> ofQ q <> 0.
Proof. intros q H E. apply H. apply ofQ_inj. rewrite E. symmetry. apply ofQ_0. Qed.

Lemma ofQ_eq0 : forall q, (q == 0)%Q -> ofQ q = 0.
Proof. intros q H. rewrite (ofQ_Qeq _ _ H). apply ofQ_0. Qed.

Lemma ofQ_inv : forall p, ~ (p == 0)%Q -> ofQ (/ p)%Q = 1 / ofQ p.
Proof.
  intros p Hp.
  assert (E : ofQ (/ p)%Q * ofQ p = 1).
  { rewrite <- ofQ_mul. rewrite <- ofQ_1. apply ofQ_Qeq. rewrite Qmult_comm. apply Qmult_inv_r. exact Hp. }
  pose proof (ofQ_neq0 _ Hp) as Hn.
  transitivity ((ofQ (/ p)%Q * ofQ p) / ofQ p); [field; exact Hn | rewrite E; reflexivity].
Qed.

Lemma ofQ_div : forall p q, ~ (q == 0)%Q -> ofQ (p / q)%Q = ofQ p / ofQ q.
Proof.
  intros p q Hq. unfold Qdiv. rewrite ofQ_mul, ofQ_inv by exact Hq.
  field. apply ofQ_neq0. exact Hq.
Qed.

Lemma is0_true : forall q, is0 q = true -> (q == 0)%Q.
Proof. intros q H. apply Qeq_bool_iff. exact H. Qed.

Lemma is0_false : forall q, is0 q = false -> ~ (q == 0)%Q.
Proof. intros q H E. apply Qeq_bool_iff in E. unfold is0 in H. congruence. Qed.

Variable fsqrt : F -> F.
Variable fcbrt : F -> F.
Variable fi : F.

Fixpoint eval (e : rx) : F :=
  match e with
  | RQ q => ofQ q
  | RI => fi
  | RNeg a => - eval a
  | RAdd a b => eval a + eval b
  | RSub a b => eval a - eval b
  | RMul a b => eval a * eval b
  | RDiv a b => eval a / eval b
  | RSqrt a => fsqrt (eval a)
  | RCbrt a => fcbrt (eval a)
  | RAdd4 a b c d => eval a + eval b + eval c + eval d
  | RMul3 a b c => eval a * eval b * eval c
  end.

(* every radical occurring in e satisfies its defining relation *)
Fixpoint rad_ok (e : rx) : Prop :=
  match e with
  | RQ _ => True
  | RI => fi * fi = - (1)
  | RNeg a => rad_ok a
  | RAdd a b | RSub a b | RMul a b | RDiv a b => rad_ok a /\ rad_ok b
  | RSqrt a => rad_ok a /\ fsqrt (eval a) * fsqrt (eval a) = eval a
  | RCbrt a => rad_ok a /\ fcbrt (eval a) * fcbrt (eval a) * fcbrt (eval a) = eval a
  | RAdd4 a b c d => rad_ok a /\ rad_ok b /\ rad_ok c /\ rad_ok d
  | RMul3 a b c => rad_ok a /\ rad_ok b /\ rad_ok c
  end.

Lemma rad_ok_total :
  (forall x, fsqrt x * fsqrt x = x) -> (forall x, fcbrt x * fcbrt x * fcbrt x = x) -> fi * fi = - (1) ->
  forall e, rad_ok e.
Proof.
  intros Hs Hc Hi. induction e; cbn [rad_ok]; auto.
Qed.

Lemma rx_eqb_eval : forall a b, rx_eqb a b = true -> eval a = eval b.
Proof.
  (* [rx_eqb] is false off the diagonal; on it, one induction hypothesis per argument *)
  induction a; destruct b; cbn [rx_eqb eval]; intro H; try discriminate;
    rewrite ?andb_true_iff in H.
  - apply ofQ_Qeq. apply Qeq_bool_iff. exact H.
  - reflexivity.
  - rewrite (IHa _ H). reflexivity.
  - destruct H as [H1 H2]. rewrite (IHa1 _ H1), (IHa2 _ H2). reflexivity.
  - destruct H as [H1 H2]. rewrite (IHa1 _ H1), (IHa2 _ H2). reflexivity.
  - destruct H as [H1 H2]. rewrite (IHa1 _ H1), (IHa2 _ H2). reflexivity.
  - destruct H as [H1 H2]. rewrite (IHa1 _ H1), (IHa2 _ H2). reflexivity.
  - rewrite (IHa _ H). reflexivity.
  - rewrite (IHa _ H). reflexivity.
  - destruct H as [[[H1 H2] H3] H4]. rewrite (IHa1 _ H1), (IHa2 _ H2), (IHa3 _ H3), (IHa4 _ H4). reflexivity.
  - destruct H as [[H1 H2] H3]. rewrite (IHa1 _ H1), (IHa2 _ H2), (IHa3 _ H3). reflexivity.
Qed.

Lemma eval_rq : forall q, eval (rq q) = ofQ q.
Proof. intro q. unfold rq. cbn [eval]. apply ofQ_Qred. Qed.

Lemma eval_rneg : forall a, eval (rneg a) = - eval a.
Proof. destruct a; cbn [rneg eval]; try reflexivity. rewrite eval_rq. apply ofQ_opp. Qed.

Lemma rad_ok_rq : forall q, rad_ok (rq q). Proof using. intro; exact I. Qed.

Lemma rad_ok_rneg : forall a, rad_ok (rneg a) <-> rad_ok a.
Proof. destruct a; reflexivity. Qed.

(* radd, rsub, rmul, rdiv are [fold2 f R] for the operation f on Q and the constructor R: two
   numbers are folded, anything else is left to the constructor *)
Definition fold2 (f : Q -> Q -> Q) (R : rx -> rx -> rx) (a b : rx) : rx :=
  match a, b with RQ p, RQ q => rq (f p q) | _, _ => R a b end.

Lemma radd_fold2 : forall a b, radd a b = fold2 Qplus RAdd a b. Proof. reflexivity. Qed.
Lemma rsub_fold2 : forall a b, rsub a b = fold2 Qminus RSub a b. Proof. reflexivity. Qed.
Lemma rmul_fold2 : forall a b, rmul a b = fold2 Qmult RMul a b. Proof. reflexivity. Qed.
Lemma rdiv_fold2 : forall a b, rdiv a b = fold2 Qdiv RDiv a b. Proof. reflexivity. Qed.

Lemma eval_fold2 : forall f R a b,
  (forall p q, a = RQ p -> b = RQ q -> ofQ (f p q) = eval (R a b)) ->
  eval (fold2 f R a b) = eval (R a b).
Proof.
  intros f R a b H. destruct a; try reflexivity. destruct b; try reflexivity.
  cbn [fold2]. rewrite eval_rq. apply H; reflexivity.
Qed.

Lemma rad_ok_fold2 : forall f R,
  (forall a b, rad_ok (R a b) <-> rad_ok a /\ rad_ok b) ->
  forall a b, rad_ok (fold2 f R a b) <-> rad_ok a /\ rad_ok b.
Proof.
  intros f R HR a b. destruct a; try apply HR. destruct b; try apply HR.
  cbn [fold2 rad_ok rq]. tauto.
Qed.

Lemma eval_radd : forall a b, eval (radd a b) = eval a + eval b.
Proof. intros a b. rewrite radd_fold2. apply eval_fold2. intros p q -> ->. apply ofQ_add. Qed.

Lemma eval_rsub : forall a b, eval (rsub a b) = eval a - eval b.
Proof. intros a b. rewrite rsub_fold2. apply eval_fold2. intros p q -> ->. apply ofQ_sub. Qed.

Lemma eval_rmul : forall a b, eval (rmul a b) = eval a * eval b.
Proof. intros a b. rewrite rmul_fold2. apply eval_fold2. intros p q -> ->. apply ofQ_mul. Qed.

Lemma eval_rdiv : forall a b, eval b <> 0 -> eval (rdiv a b) = eval a / eval b.
Proof.
  intros a b H. rewrite rdiv_fold2. apply eval_fold2. intros p q -> ->. apply ofQ_div.
  intro E. apply H. apply ofQ_eq0. exact E.
Qed.

Lemma rad_ok_radd : forall a b, rad_ok (radd a b) <-> rad_ok a /\ rad_ok b.
Proof. intros a b. rewrite radd_fold2. apply rad_ok_fold2. reflexivity. Qed.
Lemma rad_ok_rsub : forall a b, rad_ok (rsub a b) <-> rad_ok a /\ rad_ok b.
Proof. intros a b. rewrite rsub_fold2. apply rad_ok_fold2. reflexivity. Qed.
Lemma rad_ok_rmul : forall a b, rad_ok (rmul a b) <-> rad_ok a /\ rad_ok b.
Proof. intros a b. rewrite rmul_fold2. apply rad_ok_fold2. reflexivity. Qed.
Lemma rad_ok_rdiv : forall a b, rad_ok (rdiv a b) <-> rad_ok a /\ rad_ok b.
Proof. intros a b. rewrite rdiv_fold2. apply rad_ok_fold2. reflexivity. Qed.

Lemma sqrt_exact_sound : forall q t, sqrt_exact q = Some t -> (t * t == q)%Q.
Proof.
  intros [n d] t. unfold sqrt_exact. cbn [Qnum Qden].
  destruct (n * Zpos d <? 0)%Z eqn:Hneg; [discriminate|].
  destruct (Z.sqrt (n * Zpos d) * Z.sqrt (n * Zpos d) =? n * Zpos d)%Z eqn:Hsq; [|discriminate].
  intro H. injection H as <-. apply Z.eqb_eq in Hsq.
  transitivity ((Z.sqrt (n * Zpos d) # d) * (Z.sqrt (n * Zpos d) # d))%Q.
  { apply Qmult_comp; exact (Qred_correct (Z.sqrt (n * Zpos d) # d)). }
  unfold Qeq, Qmult. cbn [Qnum Qden].
  rewrite Hsq. rewrite Pos2Z.inj_mul. ring.
Qed.

Lemma rsqrt_sq : forall a, rad_ok (rsqrt a) -> eval (rsqrt a) * eval (rsqrt a) = eval a.
Proof.
  intros a H. destruct a; cbn [rsqrt] in *; try (cbn [rad_ok eval] in *; tauto).
  destruct (sqrt_exact q) as [t|] eqn:E.
  - cbn [eval]. rewrite <- ofQ_mul. apply ofQ_Qeq. apply sqrt_exact_sound. exact E.
  - cbn [rad_ok eval] in *. tauto.
Qed.

Lemma rad_ok_rsqrt : forall a, rad_ok (rsqrt a) -> rad_ok a.
Proof using.
  intros a H. destruct a; cbn [rsqrt] in *; try (cbn [rad_ok] in *; tauto).
Qed.

Lemma cbrt_exact_sound : forall q t, cbrt_exact q = Some t -> (t * t * t == q)%Q.
Proof.
  intros [n d] t. unfold cbrt_exact. cbn [Qnum Qden].
  destruct (0 <? n)%Z; [|discriminate].
  set (a := icbrt n). set (b := icbrt (Zpos d)).
  destruct ((a * a * a =? n)%Z && (b * b * b =? Zpos d)%Z && (0 <? b)%Z) eqn:E; [|discriminate].
  apply andb_prop in E. destruct E as [E Eb]. apply andb_prop in E. destruct E as [Ea Ed].
  apply Z.eqb_eq in Ea. apply Z.eqb_eq in Ed. apply Z.ltb_lt in Eb.
  intro H. injection H as <-.
  transitivity ((a # Z.to_pos b) * (a # Z.to_pos b) * (a # Z.to_pos b))%Q.
  { apply Qmult_comp; [apply Qmult_comp|]; exact (Qred_correct (a # Z.to_pos b)). }
  unfold Qeq, Qmult. cbn [Qnum Qden]. rewrite !Pos2Z.inj_mul, Z2Pos.id by exact Eb.
  rewrite Ea, Ed. ring.
Qed.

Lemma rcbrt_cube : forall a, rad_ok (rcbrt a) ->
  eval (rcbrt a) * eval (rcbrt a) * eval (rcbrt a) = eval a.
Proof.
  intros a H. destruct a; cbn [rcbrt] in *; try (cbn [rad_ok eval] in *; tauto).
  destruct (cbrt_exact q) as [t|] eqn:E.
  - cbn [eval]. rewrite <- !ofQ_mul. apply ofQ_Qeq. apply cbrt_exact_sound. exact E.
  - cbn [rad_ok eval] in *. tauto.
Qed.

Lemma rad_ok_rcbrt : forall a, rad_ok (rcbrt a) -> rad_ok a.
Proof.
  intros a H. destruct a; cbn [rcbrt] in *; try (cbn [rad_ok] in *; tauto).
Qed.

Lemma eval_radd4 : forall a b c d, eval (radd4 a b c d) = eval a + eval b + eval c + eval d.
Proof.
  intros a b c d. unfold radd4.
  destruct a; try reflexivity. destruct b; try reflexivity. destruct c; try reflexivity.
  destruct d; try reflexivity. rewrite eval_rq. cbn [eval]. rewrite !ofQ_add. reflexivity.
Qed.

Lemma eval_rmul3 : forall a b c, eval (rmul3 a b c) = eval a * eval b * eval c.
Proof.
  intros a b c. unfold rmul3.
  destruct a; try reflexivity. destruct b; try reflexivity. destruct c; try reflexivity.
  rewrite eval_rq. cbn [eval]. rewrite !ofQ_mul. reflexivity.
Qed.

Lemma rad_ok_radd4 : forall a b c d,
  rad_ok (radd4 a b c d) <-> rad_ok a /\ rad_ok b /\ rad_ok c /\ rad_ok d.
Proof using.
  intros a b c d. destruct a; try reflexivity. destruct b; try reflexivity.
  destruct c; try reflexivity. destruct d; try reflexivity. cbn [radd4 rad_ok rq]. tauto.
Qed.

Lemma rad_ok_rmul3 : forall a b c, rad_ok (rmul3 a b c) <-> rad_ok a /\ rad_ok b /\ rad_ok c.
Proof using.
  intros a b c. destruct a; try reflexivity. destruct b; try reflexivity.
  destruct c; try reflexivity. cbn [rmul3 rad_ok rq]. tauto.
Qed.

Lemma set_mem_eval : forall x l, set_mem x l = true -> exists y, In y l /\ eval x = eval y.
Proof.
  intros x l H. unfold set_mem in H. apply existsb_exists in H. destruct H as [y [Hy E]].
  exists y. split; [exact Hy | apply rx_eqb_eval; exact E].
Qed.

Lemma rx_eqb_refl : forall a, rx_eqb a a = true.
Proof using.
  induction a; cbn [rx_eqb]; rewrite ?IHa, ?IHa1, ?IHa2, ?IHa3, ?IHa4; try reflexivity.
  apply Qeq_bool_iff. reflexivity.
Qed.

Lemma set_insert_in : forall x l y, In y (set_insert x l) <-> (In y l \/ (y = x /\ set_mem x l = false)).
Proof.
  intros x l y. unfold set_insert. destruct (set_mem x l) eqn:E.
  - split; [tauto | intros [H | [_ H]]; [exact H | discriminate]].
  - rewrite in_app_iff. cbn [In]. split.
    + intros [H | [H | []]]; [left; exact H | right; split; [symmetry; exact H | reflexivity]].
    + intros [H | [H _]]; [left; exact H | right; left; symmetry; exact H].
Qed.

(* the values denoted by the members of a list *)
Definition vals (l : list rx) (v : F) : Prop := exists r, In r l /\ eval r = v.

Lemma vals_set_insert : forall x l v, vals (set_insert x l) v <-> (vals l v \/ v = eval x).
Proof.
  intros x l v. unfold vals. split.
  - intros [r [Hr E]]. apply set_insert_in in Hr. destruct Hr as [Hr | [-> _]].
    + left. exists r. tauto.
    + right. symmetry. exact E.
  - intros [[r [Hr E]] | ->].
    + exists r. split; [apply set_insert_in; left; exact Hr | exact E].
    + destruct (set_mem x l) eqn:M.
      * destruct (set_mem_eval _ _ M) as [y [Hy Ey]]. exists y.
        split; [apply set_insert_in; left; exact Hy | symmetry; exact Ey].
      * exists x. split; [apply set_insert_in; right; split; reflexivity || exact M | reflexivity].
Qed.

Lemma vals_fold_insert : forall l s v,
  vals (fold_left (fun s x => set_insert x s) l s) v <-> (vals s v \/ vals l v).
Proof.
  induction l as [|x l IH]; intros s v; cbn [fold_left].
  - unfold vals at 3. split; [tauto | intros [H | [r [[] _]]]; exact H].
  - rewrite IH, vals_set_insert. unfold vals at 3 4. cbn [In]. split.
    + intros [[H | ->] | [r [Hr E]]]; [tauto | right; exists x; tauto | right; exists r; tauto].
    + intros [H | [r [[-> | Hr] E]]]; [tauto | left; right; symmetry; exact E | right; exists r; tauto].
Qed.

Lemma vals_set_of : forall l v, vals (set_of l) v <-> vals l v.
Proof.
  intros l v. unfold set_of. rewrite vals_fold_insert. unfold vals at 1. cbn [In].
  split; [intros [[r [[] _]] | H]; exact H | tauto].
Qed.

Lemma in_set_insert_sub : forall x l y, In y (set_insert x l) -> In y l \/ y = x.
Proof. intros x l y H. apply set_insert_in in H. tauto. Qed.

Lemma in_fold_insert_sub : forall l s y,
  In y (fold_left (fun s x => set_insert x s) l s) -> In y s \/ In y l.
Proof.
  induction l as [|x l IH]; intros s y H; cbn [fold_left] in H; [left; exact H|].
  apply IH in H. destruct H as [H | H]; [|right; right; exact H].
  apply in_set_insert_sub in H. cbn [In]. destruct H as [H | ->]; [left; exact H | right; left; reflexivity].
Qed.

Lemma in_set_of_sub : forall l y, In y (set_of l) -> In y l.
Proof. intros l y H. apply in_fold_insert_sub in H. destruct H as [[] | H]; exact H. Qed.


Notation Z_ := ofZ.
(* writes the numerals [Z_ 2], [Z_ 27], ... as sums and products of 1, the form in which [ring],
   [field] and [nsatz] recognise constants *)
Ltac numerals := unfold ofZ in *; cbn [gen_phiZ gen_phiPOS gen_phiPOS1] in *.

(* [nsatz] may leave the side goal "the integer z by which it multiplied the conclusion is not 0
   in F", stated through the type classes of Ncring; [unfold_cls] unfolds those to the field
   operations, [nsatz_side] closes the goal by [ofZ_neq0] (characteristic 0) *)
Ltac unfold_cls :=
  cbv [R2 one zero addition multiplication subtraction opposite equality K_ops add_notation
       mul_notation sub_notation opp_notation eq_notation one_notation zero_notation] in *.

Ltac nsatz_side :=
  match goal with
  | |- ~ _ (interpret3 (PEc ?z) _) _ =>
      let E := fresh "E" in
      intro E; apply (ofZ_neq0 z); [lia|];
      etransitivity; [|exact E]; cbn; unfold ofZ; cbn [gen_phiZ gen_phiPOS gen_phiPOS1];
      unfold_cls; ring
  end.

Ltac nsatz' := nsatz; try nsatz_side.

Lemma mul_neq0 : forall a b : F, a <> 0 -> b <> 0 -> a * b <> 0.
Proof. intros a b Ha Hb E. destruct (F_integral _ _ E); contradiction. Qed.

(* side conditions of [field]: conjunctions of products of factors assumed non-zero *)
Ltac solve_nz := repeat split; repeat (apply mul_neq0); assumption.

Lemma mul_eq0_iff : forall a b : F, a * b = 0 <-> a = 0 \/ b = 0.
Proof.
  intros a b. split; [apply F_integral|]. intros [-> | ->]; ring.
Qed.

Lemma sub_eq0_iff : forall x v : F, x - v = 0 <-> x = v.
Proof.
  intros x v. split; intro H.
  - transitivity ((x - v) + v); [ring | rewrite H; ring].
  - rewrite H. ring.
Qed.

Lemma add_eq0_iff : forall x s : F, x + s = 0 <-> x = - s.
Proof.
  intros x s. split; intro H; [|rewrite H; ring].
  transitivity ((x + s) - s); [ring | rewrite H; ring].
Qed.

Lemma shift_iff : forall x s v : F, x + s = v <-> x = v - s.
Proof. intros x s v. split; intro H; [rewrite <- H | rewrite H]; ring. Qed.

Lemma sub_def : forall a b : F, a - b = a + - b.
Proof. intros a b. ring. Qed.

Lemma sq_eq_iff : forall s v y : F, s * s = v -> (y * y = v <-> y = s \/ y = - s).
Proof.
  intros s v y <-. split; [|intros [-> | ->]; ring].
  intro H. assert (X : (y - s) * (y + s) = 0) by (transitivity (y * y - s * s); [|rewrite H]; ring).
  apply mul_eq0_iff in X. rewrite sub_eq0_iff, add_eq0_iff in X. exact X.
Qed.

Lemma sq_eq0 : forall x : F, x * x = 0 -> x = 0.
Proof. intros x H. destruct (F_integral _ _ H); assumption. Qed.

Lemma div_eq0 : forall x y : F, y <> 0 -> x / y = 0 -> x = 0.
Proof. intros x y N H. transitivity ((x / y) * y); [field; exact N | rewrite H; ring]. Qed.

Lemma div_1 : forall z : F, z / 1 = z.
Proof. intro z. field. apply (F_1_neq_0 Fth). Qed.

Lemma two_neq0 : Z_ 2 <> 0. Proof. apply ofZ_pos_neq0. Qed.
Lemma three_neq0 : Z_ 3 <> 0. Proof. apply ofZ_pos_neq0. Qed.

Lemma quad_vieta : forall b c s, s * s = b * b - Z_ 4 * c ->
  (- b / Z_ 2 + s / Z_ 2) + (- b / Z_ 2 - s / Z_ 2) = - b /\
  (- b / Z_ 2 + s / Z_ 2) * (- b / Z_ 2 - s / Z_ 2) = c.
Proof.
  intros b c s H. pose proof two_neq0 as N2. numerals.
  split; [field; exact N2|]. field_simplify_eq; [|exact N2]. nsatz.
Qed.

Lemma quad_factor : forall b c s x, s * s = b * b - Z_ 4 * c ->
  x * x + b * x + c = (x - (- b / Z_ 2 + s / Z_ 2)) * (x - (- b / Z_ 2 - s / Z_ 2)).
Proof using Fth fchar0 feq_dec.
  intros b c s x H. destruct (quad_vieta b c s H) as [V1 V2].
  set (r1 := - b / Z_ 2 + s / Z_ 2) in *. set (r2 := - b / Z_ 2 - s / Z_ 2) in *. clearbody r1 r2.
  assert (Eb : b = - (r1 + r2)) by (rewrite V1; ring).
  rewrite Eb, <- V2. ring.
Qed.

Lemma cubic_core : forall b c d u v w1 w2,
  w1 * w2 = 1 -> w1 + w2 = - (1) ->
  u * v = b * b - Z_ 3 * c ->
  u * u * u + v * v * v = b * b * b * Z_ 2 - Z_ 9 * b * c + Z_ 27 * d ->
  let r1 := - ((b + (u + v)) / Z_ 3) in
  let r2 := - ((b + (w1 * u + w2 * v)) / Z_ 3) in
  let r3 := - ((b + (w2 * u + w1 * v)) / Z_ 3) in
  r1 + r2 + r3 = - b /\ r1 * r2 + r1 * r3 + r2 * r3 = c /\ r1 * r2 * r3 = - d.
Proof.
  intros b c d u v w1 w2 H1 H2 H3 H4 r1 r2 r3. subst r1 r2 r3.
  pose proof three_neq0 as N3. numerals.
  repeat split; (field_simplify_eq; [|exact N3]); nsatz.
Qed.

Lemma omega_facts : forall i s3, i * i = - (1) -> s3 * s3 = Z_ 3 ->
  let w1 := - (1 / Z_ 2) + (i * s3) / Z_ 2 in
  let w2 := - (1 / Z_ 2) - (i * s3) / Z_ 2 in
  w1 * w2 = 1 /\ w1 + w2 = - (1).
Proof.
  intros i s3 Hi Hs w1 w2. subst w1 w2. pose proof two_neq0 as N2. numerals.
  split; (field_simplify_eq; [|exact N2]); nsatz.
Qed.

Lemma cubic_uv : forall d0 d1 t C,
  t * t = d1 * d1 - Z_ 4 * (d0 * d0 * d0) ->
  (C * C * C = (d1 + t) / Z_ 2 \/ C * C * C = (d1 - t) / Z_ 2) -> C <> 0 ->
  C * (d0 / C) = d0 /\ C * C * C + (d0 / C) * (d0 / C) * (d0 / C) = d1.
Proof.
  intros d0 d1 t C Ht HC HC0. pose proof two_neq0 as N2.
  split; [field; exact HC0|].
  assert (E : C * C * C * (C * C * C) - d1 * (C * C * C) + d0 * d0 * d0 = 0).
  { destruct HC as [HC | HC]; rewrite HC; numerals; (field_simplify_eq; [|exact N2]); nsatz. }
  field_simplify_eq; [|exact HC0]. nsatz.
Qed.

Lemma cubic_general : forall b c d t C i s3,
  let d0 := b * b - Z_ 3 * c in
  let d1 := b * b * b * Z_ 2 - Z_ 9 * b * c + Z_ 27 * d in
  t * t = d1 * d1 - Z_ 4 * (d0 * d0 * d0) ->
  (C * C * C = (d1 + t) / Z_ 2 \/ C * C * C = (d1 - t) / Z_ 2) -> C <> 0 ->
  i * i = - (1) -> s3 * s3 = Z_ 3 ->
  let w1 := - (1 / Z_ 2) + (i * s3) / Z_ 2 in
  let w2 := - (1 / Z_ 2) - (i * s3) / Z_ 2 in
  let r1 := - ((b + (C + d0 / C)) / Z_ 3) in
  let r2 := - ((b + (w1 * C + d0 / (w1 * C))) / Z_ 3) in
  let r3 := - ((b + (w2 * C + d0 / (w2 * C))) / Z_ 3) in
  (w1 * C <> 0 /\ w2 * C <> 0) /\
  r1 + r2 + r3 = - b /\ r1 * r2 + r1 * r3 + r2 * r3 = c /\ r1 * r2 * r3 = - d.
Proof.
  intros b c d t C i s3 d0 d1 Ht HC HC0 Hi Hs w1 w2 r1 r2 r3.
  destruct (omega_facts i s3 Hi Hs) as [W12 Wsum]. fold w1 w2 in W12, Wsum.
  assert (W1 : w1 <> 0).
  { intro E. rewrite E in W12. apply (F_1_neq_0 Fth). rewrite <- W12. ring. }
  assert (W2 : w2 <> 0).
  { intro E. rewrite E in W12. apply (F_1_neq_0 Fth). rewrite <- W12. ring. }
  pose proof (mul_neq0 _ _ W1 HC0) as N1. pose proof (mul_neq0 _ _ W2 HC0) as N2.
  split; [split; assumption|].
  destruct (cubic_uv d0 d1 t C Ht HC HC0) as [Huv Hsum].
  assert (E1 : d0 / (w1 * C) = w2 * (d0 / C)).
  { field_simplify_eq; [|split; assumption]. nsatz. }
  assert (E2 : d0 / (w2 * C) = w1 * (d0 / C)).
  { field_simplify_eq; [|split; assumption]. nsatz. }
  subst r2 r3. rewrite E1, E2.
  exact (cubic_core b c d C (d0 / C) w1 w2 W12 Wsum Huv Hsum).
Qed.

Lemma cubic_double : forall b c d,
  let d0 := b * b - Z_ 3 * c in
  let d1 := b * b * b * Z_ 2 - Z_ 9 * b * c + Z_ 27 * d in
  d0 <> 0 -> Z_ 4 * (d0 * d0 * d0) - d1 * d1 = 0 ->
  let r12 := (Z_ 9 * d - b * c) / (Z_ 2 * d0) in
  let r3 := (Z_ 4 * b * c - (d * Z_ 9 + b * b * b)) / d0 in
  r12 + r12 + r3 = - b /\ r12 * r12 + r12 * r3 + r12 * r3 = c /\ r12 * r12 * r3 = - d.
Proof.
  intros b c d d0 d1 Hd0 Hdelta r12 r3.
  pose proof two_neq0 as N2.
  (* both divisions are replaced by fresh j, h with j * d0 = 1, h * 2 = 1: the goal becomes
     polynomial, and [nsatz] need not clear denominators *)
  set (j := 1 / d0). set (h := 1 / Z_ 2).
  assert (Hj : j * d0 = 1) by (unfold j; field; exact Hd0).
  assert (Hh : h * Z_ 2 = 1) by (unfold h; field; exact N2).
  assert (E12 : r12 = (Z_ 9 * d - b * c) * j * h) by (unfold r12, j, h; field; split; assumption).
  assert (E3 : r3 = (Z_ 4 * b * c - (d * Z_ 9 + b * b * b)) * j) by (unfold r3, j; field; assumption).
  rewrite E12, E3. clearbody j h. clear E12 E3 r12 r3 N2 Hd0. subst d0 d1. numerals.
  repeat split; nsatz'.
Qed.

Lemma cubic_triple : forall b c d,
  let d0 := b * b - Z_ 3 * c in
  let d1 := b * b * b * Z_ 2 - Z_ 9 * b * c + Z_ 27 * d in
  d0 = 0 -> d1 = 0 ->
  let r := - b / Z_ 3 in
  r + r + r = - b /\ r * r + r * r + r * r = c /\ r * r * r = - d.
Proof.
  intros b c d d0 d1 Hd0 Hd1 r. subst r d0 d1.
  pose proof three_neq0 as N3. numerals.
  repeat split; (field_simplify_eq; [|assumption]); nsatz.
Qed.

Lemma vieta3_factor : forall b c d r1 r2 r3 x,
  r1 + r2 + r3 = - b -> r1 * r2 + r1 * r3 + r2 * r3 = c -> r1 * r2 * r3 = - d ->
  x * x * x + b * x * x + c * x + d = (x - r1) * (x - r2) * (x - r3).
Proof using Fth feq_dec. intros. nsatz. Qed.

Lemma depress : forall a b c d x,
  let sqa := a * a in
  let cba := sqa * a in
  let e := b - (Z_ 3 * sqa) / Z_ 8 in
  let ff := (c + cba / Z_ 8) - (a * b) / Z_ 2 in
  let g := (d + (sqa * b) / Z_ 16) - ((a * c) / Z_ 4 + (Z_ 3 * cba * a) / Z_ 256) in
  let y := x + a / Z_ 4 in
  x * x * x * x + a * x * x * x + b * x * x + c * x + d
  = y * y * y * y + e * y * y + ff * y + g.
Proof.
  intros. subst sqa cba e ff g y. pose proof two_neq0 as N2. numerals.
  field. solve_nz.
Qed.

Lemma euler : forall e ff g z1 z2 z3 p q y,
  z1 + z2 + z3 = - (e / Z_ 2) ->
  z1 * z2 + z1 * z3 + z2 * z3 = (e * e - Z_ 4 * g) / Z_ 16 ->
  z1 * z2 * z3 = (ff * ff) / Z_ 64 ->
  p * p = z1 -> q * q = z2 -> ff <> 0 ->
  let r := (- ff) / (Z_ 8 * p * q) in
  (Z_ 8 * p * q <> 0) /\
  y * y * y * y + e * y * y + ff * y + g
  = (y - (p + q + r)) * (y - (p + - q + - r)) * (y - (- p + q + - r)) * (y - (- p + - q + r)).
Proof.
  intros e ff g z1 z2 z3 p q y H1 H2 H3 Hp Hq Hff r. subst r.
  pose proof two_neq0 as N2.
  assert (E1 : Z_ 2 * (z1 + z2 + z3) = - e) by (rewrite H1; numerals; field; solve_nz).
  assert (E2 : Z_ 16 * (z1 * z2 + z1 * z3 + z2 * z3) = e * e - Z_ 4 * g)
    by (rewrite H2; numerals; field; solve_nz).
  assert (E3 : Z_ 64 * (z1 * z2 * z3) = ff * ff) by (rewrite H3; numerals; field; solve_nz).
  clear H1 H2 H3.
  (* p = 0 or q = 0 would make z1 z2 z3 = ff^2 / 64 vanish *)
  assert (Np : p <> 0).
  { intro E. apply Hff. apply sq_eq0. rewrite <- E3, <- Hp, E. ring. }
  assert (Nq : q <> 0).
  { intro E. apply Hff. apply sq_eq0. rewrite <- E3, <- Hq, E. ring. }
  assert (N8 : Z_ 8 * p * q <> 0).
  { repeat apply mul_neq0; try assumption; try apply ofZ_pos_neq0. }
  split; [exact N8|].
  numerals.
  field_simplify_eq; [|solve_nz].
  nsatz'.
Qed.

Lemma rx_eqb_rad_ok : forall a b, rx_eqb a b = true -> (rad_ok a <-> rad_ok b).
Proof.
  induction a; destruct b; cbn [rx_eqb]; intro H; try discriminate; cbn [rad_ok];
    rewrite ?andb_true_iff in H.
  - reflexivity.
  - reflexivity.
  - exact (IHa _ H).
  - destruct H as [H1 H2]. rewrite (IHa1 _ H1), (IHa2 _ H2). reflexivity.
  - destruct H as [H1 H2]. rewrite (IHa1 _ H1), (IHa2 _ H2). reflexivity.
  - destruct H as [H1 H2]. rewrite (IHa1 _ H1), (IHa2 _ H2). reflexivity.
  - destruct H as [H1 H2]. rewrite (IHa1 _ H1), (IHa2 _ H2). reflexivity.
  - rewrite (IHa _ H), (rx_eqb_eval _ _ H). reflexivity.
  - rewrite (IHa _ H), (rx_eqb_eval _ _ H). reflexivity.
  - destruct H as [[[H1 H2] H3] H4]. rewrite (IHa1 _ H1), (IHa2 _ H2), (IHa3 _ H3), (IHa4 _ H4). reflexivity.
  - destruct H as [[H1 H2] H3]. rewrite (IHa1 _ H1), (IHa2 _ H2), (IHa3 _ H3). reflexivity.
Qed.

(* [qnz]: a rational numeral is not == 0; [pushQ]: ofQ into sums, products, quotients by
   numerals, integers *)
Ltac qnz := first [ assumption
                  | let X := fresh in intro X; unfold Qeq in X; cbn in X; lia ].

Ltac pushQ :=
  repeat (rewrite ?ofQ_add, ?ofQ_mul, ?ofQ_sub, ?ofQ_opp, ?ofQ_int, ?ofZ_1, ?ofZ_0;
          try (rewrite ofQ_div by qnz)).

(* if m * b^2 is a square (b > 0) then so is m: the completeness of [sqrt_exact] *)
Lemma Zsquare_factor : forall m k b : Z, (0 < b)%Z -> (m * (b * b) = k * k)%Z -> exists j, (m = j * j)%Z.
Proof.
  intros m k b Hb H.
  set (g := Z.gcd k b).
  assert (Hg : (g <> 0)%Z) by (unfold g; intro E; apply Z.gcd_eq_0_r in E; lia).
  assert (Hg0 : (0 < g)%Z) by (pose proof (Z.gcd_nonneg k b); unfold g in *; lia).
  destruct (Z.gcd_divide_l k b) as [k' Hk]. destruct (Z.gcd_divide_r k b) as [b' Hb'].
  fold g in Hk, Hb'.
  assert (Hcop : Z.gcd k' b' = 1%Z).
  { pose proof (Z.gcd_div_gcd k b g Hg eq_refl) as X.
    assert (X1 : (k / g = k')%Z) by (rewrite Hk; apply Z.div_mul; exact Hg).
    assert (X2 : (b / g = b')%Z) by (rewrite Hb'; apply Z.div_mul; exact Hg).
    rewrite X1, X2 in X. exact X. }
  assert (E : (m * (b' * b') = k' * k')%Z).
  { apply (Z.mul_reg_r _ _ (g * g)); [nia|]. rewrite Hk, Hb' in H. nia. }
  assert (D : (b' | k')%Z).
  { apply (Z.gauss b' k' k'); [exists (m * b')%Z; lia | rewrite Z.gcd_comm; exact Hcop]. }
  assert (D1 : (b' | 1)%Z).
  { rewrite <- Hcop. apply Z.gcd_greatest; [exact D | apply Z.divide_refl]. }
  apply Z.divide_1_r in D1.
  exists k'. destruct D1 as [-> | ->]; lia.
Qed.

Lemma sqrt_exact_complete : forall q r : Q, (r * r == q)%Q -> sqrt_exact q <> None.
Proof.
  intros [n d] [a b] H. unfold Qeq, Qmult in H. cbn [Qnum Qden] in H.
  unfold sqrt_exact. cbn [Qnum Qden].
  assert (E : (n * Zpos d * (Zpos b * Zpos b) = (a * Zpos d) * (a * Zpos d))%Z).
  { rewrite Pos2Z.inj_mul in H. nia. }
  destruct (Zsquare_factor _ _ _ (Pos2Z.is_pos b) E) as [j Hj].
  rewrite Hj.
  assert (Hn : (j * j <? 0)%Z = false) by (apply Z.ltb_ge; nia).
  rewrite Hn.
  assert (Hs : (Z.sqrt (j * j) * Z.sqrt (j * j) =? j * j)%Z = true).
  { apply Z.eqb_eq. replace (j * j)%Z with (Z.abs j * Z.abs j)%Z by nia.
    rewrite Z.sqrt_square by apply Z.abs_nonneg. reflexivity. }
  rewrite Hs. discriminate.
Qed.

Lemma rsqrt_unfolded_irrational : forall q r,
  sqrt_exact q = None -> fsqrt (ofQ q) * fsqrt (ofQ q) = ofQ q -> fsqrt (ofQ q) <> ofQ r.
Proof.
  intros q r Hn Hs E. apply (sqrt_exact_complete q r); [|exact Hn].
  apply ofQ_inj. rewrite ofQ_mul, <- E. exact Hs.
Qed.

Lemma eval_three_neq0 : eval (rq 3) <> 0.
Proof. rewrite eval_rq, ofQ_int. apply ofZ_pos_neq0. Qed.
Lemma eval_two_neq0 : eval (rq 2) <> 0.
Proof. rewrite eval_rq, ofQ_int. apply ofZ_pos_neq0. Qed.

Fixpoint peval (cs : list Q) (x : F) : F :=
  match cs with
  | [] => 0
  | c :: r => ofQ c + x * peval r x
  end.

Theorem linear_exact : forall c0 c1, ~ (c1 == 0)%Q ->
  exists r, solve_poly_linear [c0; c1] = Ok [r] /\
            forall x, peval [c0; c1] x = 0 <-> x = eval r.
Proof using Fth fchar0.
  intros c0 c1 H1. eexists. split; [reflexivity|].
  intro x. cbn [peval]. rewrite eval_rneg, eval_rdiv, !eval_rq by (rewrite eval_rq; apply ofQ_neq0; exact H1).
  pose proof (ofQ_neq0 _ H1) as N1.
  split; intro H.
  - assert (E : x = - (ofQ c0) / ofQ c1).
    { transitivity ((ofQ c0 + x * (ofQ c1 + x * 0) - ofQ c0) / ofQ c1); [field; exact N1|]. rewrite H. field. exact N1. }
    rewrite E. field. exact N1.
  - rewrite H. field. exact N1.
Qed.

Lemma quadratic_vieta : forall c0 c1 c2, ~ (c2 == 0)%Q ->
  let rr := quadratic_roots c0 c1 c2 in
  rad_ok (fst rr) -> rad_ok (snd rr) ->
  eval (fst rr) + eval (snd rr) = - (ofQ c1 / ofQ c2) /\ eval (fst rr) * eval (snd rr) = ofQ c0 / ofQ c2.
Proof.
  intros c0 c1 c2 H2 rr. subst rr. rewrite <- !ofQ_div by exact H2.
  unfold quadratic_roots. cbv zeta. generalize (c1 / c2)%Q (c0 / c2)%Q. clear c0 c1 c2 H2. intros b c.
  destruct (is0 c) eqn:Ec; [|destruct (is0 b) eqn:Eb]; cbn [fst snd]; intros O1 O2.
  - rewrite !eval_rq, ofQ_opp, ofQ_0, (ofQ_eq0 _ (is0_true _ Ec)). split; ring.
  - pose proof (rsqrt_sq _ O1) as S. rewrite eval_rq, ofQ_opp in S.
    rewrite eval_rneg, (ofQ_eq0 _ (is0_true _ Eb)). split; [ring|].
    set (s := eval _) in *. transitivity (- (s * s)); [ring | rewrite S; ring].
  - apply rad_ok_radd, proj2, rad_ok_rdiv, proj1 in O1.
    pose proof (rsqrt_sq _ O1) as S. rewrite eval_rq in S. revert S.
    rewrite eval_radd, eval_rsub, !eval_rdiv, !eval_rq by exact eval_two_neq0. pushQ.
    apply quad_vieta.
Qed.

Theorem quadratic_factor : forall c0 c1 c2, ~ (c2 == 0)%Q ->
  let rr := quadratic_roots c0 c1 c2 in
  rad_ok (fst rr) -> rad_ok (snd rr) ->
  forall x, peval [c0; c1; c2] x = ofQ c2 * (x - eval (fst rr)) * (x - eval (snd rr)).
Proof using Fth fchar0 feq_dec.
  intros c0 c1 c2 H2 rr O1 O2 x.
  destruct (quadratic_vieta _ _ _ H2 O1 O2) as [V1 V2]. fold rr in V1, V2.
  pose proof (ofQ_neq0 _ H2) as N2. cbn [peval].
  assert (E1 : ofQ c1 = - (ofQ c2 * (eval (fst rr) + eval (snd rr)))) by (rewrite V1; field; exact N2).
  assert (E0 : ofQ c0 = ofQ c2 * (eval (fst rr) * eval (snd rr))) by (rewrite V2; field; exact N2).
  rewrite E1, E0. ring.
Qed.

Lemma quadratic_roots_iff_local : forall c0 c1 c2, ~ (c2 == 0)%Q ->
  let rr := quadratic_roots c0 c1 c2 in
  rad_ok (fst rr) -> rad_ok (snd rr) ->
  forall x, peval [c0; c1; c2] x = 0 <-> (x = eval (fst rr) \/ x = eval (snd rr)).
Proof.
  intros c0 c1 c2 H2 rr O1 O2 x. rewrite (quadratic_factor c0 c1 c2 H2 O1 O2 x).
  pose proof (ofQ_neq0 _ H2) as N2. rewrite !mul_eq0_iff, !sub_eq0_iff. tauto.
Qed.

Definition t1 (t : rx * rx * rx) : rx := fst (fst t).
Definition t2 (t : rx * rx * rx) : rx := snd (fst t).
Definition t3 (t : rx * rx * rx) : rx := snd t.

Lemma is_zero_eval : forall e, is_zero e = true -> eval e = 0.
Proof.
  intros e H. destruct e; cbn [is_zero] in H; try discriminate.
  cbn [eval]. apply ofQ_eq0. apply is0_true. exact H.
Qed.

(* On (p + sqrt q) / 2 the structural test eq(e, zero) is exact: either the square root folds
   and e is a number, or it stays symbolic and is irrational. *)
Lemma is_zero_surd : forall p q,
  let e := rdiv (radd (rq p) (rsqrt (rq q))) (rq 2) in
  rad_ok (rsqrt (rq q)) -> is_zero e = false -> eval e <> 0.
Proof.
  intros p q. unfold rsqrt, rq. destruct (sqrt_exact (Qred q)) as [t|] eqn:Es; cbn [radd rdiv is_zero].
  - intros _ Ez. apply ofQ_neq0, is0_false, Ez.
  - cbn [rad_ok eval]. intros [_ Osq] _ E.
    apply (rsqrt_unfolded_irrational _ (- Qred p)%Q Es Osq).
    apply div_eq0 in E; [|apply eval_two_neq0].
    rewrite ofQ_opp. apply add_eq0_iff. rewrite <- E. ring.
Qed.

(* the radicand of Cardano's cube root: (delta1 + t) / 2 with t = sqrt(-27 delta), or
   (delta1 - t) / 2 if the former is structurally zero; it is not 0 when delta is not *)
Lemma cardano_radicand : forall p q,
  let t := rsqrt (rq q) in
  let e0 := rdiv (radd (rq p) t) (rq 2) in
  let e := if is_zero e0 then rdiv (rsub (rq p) t) (rq 2) else e0 in
  rad_ok e -> ofQ q <> 0 ->
  eval t * eval t = ofQ q /\
  (eval e = (ofQ p + eval t) / Z_ 2 \/ eval e = (ofQ p - eval t) / Z_ 2) /\ eval e <> 0.
Proof.
  intros p q t e0 e Oe Nq.
  assert (E0 : eval e0 = (ofQ p + eval t) / Z_ 2).
  { unfold e0. rewrite eval_rdiv, eval_radd, !eval_rq, ofQ_int by exact eval_two_neq0. reflexivity. }
  assert (Ot : rad_ok t).
  { unfold e, e0 in Oe. destruct (is_zero _); apply rad_ok_rdiv, proj1 in Oe;
      [apply rad_ok_rsub in Oe | apply rad_ok_radd in Oe]; apply Oe. }
  pose proof (rsqrt_sq _ Ot) as St. fold t in St. rewrite eval_rq in St.
  split; [exact St|]. unfold e. destruct (is_zero e0) eqn:Ez.
  - rewrite eval_rdiv, eval_rsub, !eval_rq, ofQ_int by exact eval_two_neq0.
    split; [right; reflexivity|]. intro E1.
    apply is_zero_eval in Ez. rewrite E0 in Ez.
    apply div_eq0 in Ez; [|exact two_neq0]. apply div_eq0 in E1; [|exact two_neq0].
    (* p + t = 0 and p - t = 0, so t = 0 *)
    apply Nq. rewrite <- St.
    assert (T2 : eval t * Z_ 2 = 0).
    { transitivity ((ofQ p + eval t) - (ofQ p - eval t)); [numerals; ring | rewrite Ez, E1; ring]. }
    apply mul_eq0_iff in T2. destruct T2 as [T0 | T0]; [|destruct (two_neq0 T0)].
    rewrite T0. ring.
  - split; [left; exact E0|]. exact (is_zero_surd p q Ot Ez).
Qed.

(* the three roots of the general branch have the shape -(b + (X + delta0 / X)) / 3
   for X = C, w1 C, w2 C *)
Lemma eval_cardano_root : forall b d0 X v, eval X = v -> v <> 0 ->
  eval (rneg (rdiv (radd (rq b) (radd X (rdiv (rq d0) X))) (rq 3)))
  = - ((ofQ b + (v + ofQ d0 / v)) / Z_ 3).
Proof.
  intros b d0 X v <- N.
  rewrite eval_rneg, eval_rdiv, !eval_radd, eval_rdiv, !eval_rq, ofQ_int by (exact N || exact eval_three_neq0).
  reflexivity.
Qed.

Lemma rad_ok_cardano_root : forall b d0 X,
  rad_ok (rneg (rdiv (radd (rq b) (radd X (rdiv (rq d0) X))) (rq 3))) -> rad_ok X.
Proof.
  intros b d0 X H.
  apply rad_ok_rneg, rad_ok_rdiv, proj1, rad_ok_radd, proj2, rad_ok_radd, proj1 in H. exact H.
Qed.

(* the templates of the primitive cube roots of unity -1/2 +- (I sqrt 3)/2 *)
Lemma omega_templates :
  let coef := rdiv (rmul RI (rsqrt (rq 3))) (rq 2) in
  let h := rq (- (1 / 2)) in
  rad_ok (radd h coef) ->
  exists i s3, i * i = - (1) /\ s3 * s3 = Z_ 3 /\
    eval (radd h coef) = - (1 / Z_ 2) + (i * s3) / Z_ 2 /\
    eval (rsub h coef) = - (1 / Z_ 2) - (i * s3) / Z_ 2.
Proof.
  intros coef h O. apply rad_ok_radd, proj2, rad_ok_rdiv, proj1, rad_ok_rmul in O. destruct O as [Oi Os].
  exists fi, (eval (rsqrt (rq 3))).
  pose proof (rsqrt_sq _ Os) as S. rewrite eval_rq, ofQ_int in S.
  assert (Ec : eval coef = (fi * eval (rsqrt (rq 3))) / Z_ 2).
  { unfold coef. rewrite eval_rdiv, eval_rmul, eval_rq, ofQ_int by exact eval_two_neq0. reflexivity. }
  assert (Eh : eval h = - (1 / Z_ 2)) by (unfold h; rewrite eval_rq; pushQ; reflexivity).
  rewrite eval_radd, eval_rsub, Ec, Eh. repeat split; [exact Oi | exact S].
Qed.

Lemma set_of2_shape : forall a b,
  (rx_eqb b a = true /\ set_of [a; b] = [a]) \/ set_of [a; b] = [a; b].
Proof.
  intros a b. unfold set_of, set_insert, set_mem. cbn [fold_left existsb app orb].
  destruct (rx_eqb b a); [left; split|right]; reflexivity.
Qed.

Lemma vieta3_zero_root : forall b c u w, u + w = - b -> u * w = c ->
  0 + u + w = - b /\ 0 * u + 0 * w + u * w = c /\ 0 * u * w = - 0.
Proof. intros b c u w <- <-. repeat split; ring. Qed.

Lemma cubic_vieta : forall c0 c1 c2 c3, ~ (c3 == 0)%Q ->
  let t := cubic_roots c0 c1 c2 c3 in
  rad_ok (t1 t) -> rad_ok (t2 t) -> rad_ok (t3 t) ->
  eval (t1 t) + eval (t2 t) + eval (t3 t) = - (ofQ c2 / ofQ c3) /\
  eval (t1 t) * eval (t2 t) + eval (t1 t) * eval (t3 t) + eval (t2 t) * eval (t3 t) = ofQ c1 / ofQ c3 /\
  eval (t1 t) * eval (t2 t) * eval (t3 t) = - (ofQ c0 / ofQ c3).
Proof.
  intros c0 c1 c2 c3 H3 t. subst t. rewrite <- !ofQ_div by exact H3.
  unfold cubic_roots. cbv zeta. generalize (c2 / c3)%Q (c1 / c3)%Q (c0 / c3)%Q. clear c0 c1 c2 c3 H3.
  intros b c d. destruct (is0 d) eqn:Ed.
  - (* d == 0: 0 and the roots of x^2 + b x + c *)
    rewrite (ofQ_eq0 _ (is0_true _ Ed)).
    assert (H1 : ~ (1 == 0)%Q) by qnz.
    pose proof (quadratic_vieta c b 1 H1) as QV. cbv zeta in QV. rewrite ofQ_1, !div_1 in QV.
    destruct (quadratic_roots c b 1) as [q1 q2]. cbn [fst snd] in QV.
    destruct (set_of2_shape q1 q2) as [[E ->] | ->]; cbn [t1 t2 t3 fst snd]; intros _ O2 O3.
    + destruct (QV O2 (proj2 (rx_eqb_rad_ok _ _ E) O2)) as [V1 V2].
      rewrite (rx_eqb_eval _ _ E) in V1, V2. rewrite eval_rq, ofQ_0. exact (vieta3_zero_root _ _ _ _ V1 V2).
    + destruct (QV O2 O3) as [V1 V2]. rewrite eval_rq, ofQ_0. exact (vieta3_zero_root _ _ _ _ V1 V2).
  - set (delta0 := (b * b - 3 * c)%Q).
    set (delta1 := (b * b * b * 2 - 9 * b * c + 27 * d)%Q).
    set (delta := ((4 * (delta0 * delta0 * delta0) - delta1 * delta1) / 27)%Q).
    assert (ED0 : ofQ delta0 = ofQ b * ofQ b - Z_ 3 * ofQ c) by (unfold delta0; pushQ; reflexivity).
    assert (ED1 : ofQ delta1 = ofQ b * ofQ b * ofQ b * Z_ 2 - Z_ 9 * ofQ b * ofQ c + Z_ 27 * ofQ d)
      by (unfold delta1; pushQ; reflexivity).
    assert (T27 : Z_ 27 <> 0) by apply ofZ_pos_neq0.
    assert (EDl : Z_ 27 * ofQ delta = Z_ 4 * (ofQ delta0 * ofQ delta0 * ofQ delta0) - ofQ delta1 * ofQ delta1)
      by (unfold delta; pushQ; field; exact T27).
    destruct (is0 delta) eqn:Edl.
    + rewrite (ofQ_eq0 _ (is0_true _ Edl)), ED0, ED1 in EDl.
      destruct (is0 delta0) eqn:Ed0; cbn [t1 t2 t3 fst snd]; intros _ _ _; rewrite !eval_rq; pushQ.
      * pose proof (ofQ_eq0 _ (is0_true _ Ed0)) as Z0. rewrite ED0 in Z0.
        apply cubic_triple; [exact Z0|].
        apply sq_eq0. rewrite Z0 in EDl.
        transitivity (Z_ 4 * (0 * 0 * 0) - Z_ 27 * 0); [rewrite EDl|]; ring.
      * apply is0_false in Ed0.
        assert (Q2 : ~ (2 * delta0 == 0)%Q).
        { intro X. apply Ed0. apply (Qmult_integral_l 2); [qnz | exact X]. }
        pushQ. rewrite ED0. apply cubic_double; [rewrite <- ED0; apply ofQ_neq0; exact Ed0|].
        rewrite <- EDl. ring.
    + (* Cardano.  The rad_ok hypotheses are peeled down to the cube root CC and to the template of
         omega; [rcbrt_cube] and [cardano_radicand] give CC^3 = (delta1 +- T) / 2 with
         T^2 = -27 delta, and CC <> 0; [cubic_general] turns that into Vieta's relations for
         -(b + (X + delta0 / X)) / 3 at X = CC, w1 CC, w2 CC; [eval_cardano_root] shows that the
         three templates evaluate to these *)
      apply is0_false in Edl. cbn [t1 t2 t3 fst snd]. intros O1 O2 _.
      apply rad_ok_cardano_root in O1, O2. apply rad_ok_rmul, proj1 in O2.
      destruct (omega_templates O2) as (i & s3 & Hi & Hs & Ew1 & Ew2).
      pose proof (rcbrt_cube _ O1) as HC. apply rad_ok_rcbrt in O1.
      destruct (cardano_radicand delta1 (- (27) * delta) O1) as (HT & HE & NE).
      { apply ofQ_neq0. intro X. apply Edl. apply (Qmult_integral_l (- (27))); [qnz | exact X]. }
      set (CC := rcbrt _) in *. set (T := eval (rsqrt _)) in *.
      assert (NC : eval CC <> 0) by (intro X; apply NE; rewrite <- HC, X; ring).
      rewrite <- HC, ED1 in HE.
      destruct (cubic_general (ofQ b) (ofQ c) (ofQ d) T (eval CC) i s3) as [[NW1 NW2] V]; try assumption.
      { rewrite <- ED0, <- ED1, HT. pushQ. transitivity (- (Z_ 27 * ofQ delta)); [|rewrite EDl]; ring. }
      cbv zeta in NW1, NW2, V.
      rewrite (eval_cardano_root _ _ CC _ eq_refl NC).
      rewrite (eval_cardano_root _ _ (rmul _ CC) _ (eval_rmul _ _)), (eval_cardano_root _ _ (rmul _ CC) _ (eval_rmul _ _)), Ew1, Ew2, ED0
        by (rewrite ?Ew1, ?Ew2; assumption).
      exact V.
Qed.

Theorem cubic_factor : forall c0 c1 c2 c3, ~ (c3 == 0)%Q ->
  let t := cubic_roots c0 c1 c2 c3 in
  rad_ok (t1 t) -> rad_ok (t2 t) -> rad_ok (t3 t) ->
  forall x, peval [c0; c1; c2; c3] x
            = ofQ c3 * (x - eval (t1 t)) * (x - eval (t2 t)) * (x - eval (t3 t)).
Proof using Fth fchar0 feq_dec.
  intros c0 c1 c2 c3 H3 t O1 O2 O3 x.
  destruct (cubic_vieta _ _ _ _ H3 O1 O2 O3) as [V1 [V2 V3]]. fold t in V1, V2, V3.
  pose proof (vieta3_factor _ _ _ _ _ _ x V1 V2 V3) as V.
  transitivity (ofQ c3 * ((x - eval (t1 t)) * (x - eval (t2 t)) * (x - eval (t3 t)))); [|ring].
  rewrite <- V. cbn [peval]. field. apply ofQ_neq0. exact H3.
Qed.

Lemma set_of3_shape : forall a b c,
  let s := set_of [a; b; c] in
  (rx_eqb b a = true /\ rx_eqb c a = true /\ s = [a]) \/
  (rx_eqb b a = true /\ rx_eqb c a = false /\ s = [a; c]) \/
  (rx_eqb b a = false /\ (rx_eqb c a = true \/ rx_eqb c b = true) /\ s = [a; b]) \/
  (rx_eqb b a = false /\ rx_eqb c a = false /\ rx_eqb c b = false /\ s = [a; b; c]).
Proof.
  intros a b c. unfold set_of, set_insert, set_mem. cbn [fold_left existsb app orb].
  destruct (rx_eqb b a) eqn:Eba; cbn [orb app existsb].
  - destruct (rx_eqb c a) eqn:Eca; cbn [orb app]; tauto.
  - destruct (rx_eqb c a) eqn:Eca; cbn [orb app existsb].
    + right; right; left. tauto.
    + destruct (rx_eqb c b) eqn:Ecb; cbn [orb app]; tauto.
Qed.

(* any pair taken from the set of a, b, c can be completed by a third value v3 (the value of the
   member not picked, or of a dropped copy) to the elementary symmetric functions of a, b, c *)
Lemma pairs_vieta : forall a b c z1 z2,
  In (z1, z2) (pairs_of (set_of [a; b; c])) ->
  exists v3,
    eval z1 + eval z2 + v3 = eval a + eval b + eval c /\
    eval z1 * eval z2 + eval z1 * v3 + eval z2 * v3
      = eval a * eval b + eval a * eval c + eval b * eval c /\
    eval z1 * eval z2 * v3 = eval a * eval b * eval c.
Proof.
  intros a b c z1 z2 H.
  destruct (set_of3_shape a b c) as [[Eb [Ec S]] | [[Eb [Ec S]] | [[Eb [Ec S]] | [Eb [Ec [Ecb S]]]]]];
    cbv zeta in S; rewrite S in H; cbn [pairs_of In] in H.
  - destruct H as [H | []]. injection H as <- <-.
    exists (eval a). rewrite (rx_eqb_eval _ _ Eb), (rx_eqb_eval _ _ Ec). repeat split; ring.
  - rewrite (rx_eqb_eval _ _ Eb).
    destruct H as [H | [H | []]]; injection H as <- <-; exists (eval a); repeat split; ring.
  - destruct H as [H | [H | []]]; injection H as <- <-; exists (eval c); repeat split; ring.
  - destruct H as [H | [H | [H | [H | [H | [H | []]]]]]]; injection H as <- <-;
      [exists (eval c) | exists (eval b) | exists (eval a) | exists (eval c) | exists (eval b) | exists (eval a)];
      repeat split; ring.
Qed.

Lemma pairs_nonempty : forall a b c, pairs_of (set_of [a; b; c]) <> [].
Proof.
  intros a b c.
  destruct (set_of3_shape a b c) as [[_ [_ S]] | [[_ [_ S]] | [[_ [_ S]] | [_ [_ [_ S]]]]]];
    cbv zeta in S; rewrite S; cbn [pairs_of]; discriminate.
Qed.

Lemma vals_map : forall (f : rx -> rx) l v,
  vals (map f l) v <-> exists r, In r l /\ eval (f r) = v.
Proof.
  intros f l v. unfold vals. split.
  - intros [m [Hm E]]. apply in_map_iff in Hm. destruct Hm as [r [<- Hr]]. exists r. tauto.
  - intros [r [Hr E]]. exists (f r). split; [apply in_map; exact Hr | exact E].
Qed.

Lemma vals_flat_map : forall (f : rx -> list rx) l v,
  vals (flat_map f l) v <-> exists r, In r l /\ vals (f r) v.
Proof.
  intros f l v. unfold vals. split.
  - intros [m [Hm E]]. apply in_flat_map in Hm. destruct Hm as [r [Hr Hm]]. exists r. split; [exact Hr|]. exists m. tauto.
  - intros [r [Hr [m [Hm E]]]]. exists m. split; [apply in_flat_map; exists r; tauto | exact E].
Qed.

Lemma vals_cons : forall a l v, vals (a :: l) v <-> (v = eval a \/ vals l v).
Proof.
  intros a l v. unfold vals. cbn [In]. split.
  - intros [r [[<- | Hr] E]]; [left; symmetry; exact E | right; exists r; tauto].
  - intros [-> | [r [Hr E]]]; [exists a; tauto | exists r; tauto].
Qed.

Lemma vals_nil : forall v, vals [] v <-> False.
Proof. intro v. unfold vals. cbn [In]. split; [intros [r [[] _]] | tauto]. Qed.

Lemma cubic_set_vals : forall c0 c1 c2 c3 v,
  vals (cubic_set c0 c1 c2 c3) v <->
  (v = eval (t1 (cubic_roots c0 c1 c2 c3)) \/ v = eval (t2 (cubic_roots c0 c1 c2 c3))
   \/ v = eval (t3 (cubic_roots c0 c1 c2 c3))).
Proof.
  intros c0 c1 c2 c3 v. unfold cubic_set. destruct (cubic_roots c0 c1 c2 c3) as [[r1 r2] r3].
  rewrite vals_set_of, !vals_cons, vals_nil. cbn [t1 t2 t3 fst snd]. tauto.
Qed.

(* the two quadratic roots coincide exactly when the discriminant vanishes *)
Theorem quadratic_double_iff : forall c0 c1 c2, ~ (c2 == 0)%Q ->
  let rr := quadratic_roots c0 c1 c2 in
  rad_ok (fst rr) -> rad_ok (snd rr) ->
  (eval (fst rr) = eval (snd rr) <-> (c1 * c1 - 4 * c0 * c2 == 0)%Q).
Proof using Fth fchar0 feq_dec.
  intros c0 c1 c2 H2 rr O1 O2.
  destruct (quadratic_vieta _ _ _ H2 O1 O2) as [V1 V2]. fold rr in V1, V2.
  pose proof (ofQ_neq0 _ H2) as N2. pose proof two_neq0 as T2.
  set (u := eval (fst rr)) in *. set (w := eval (snd rr)) in *. clearbody u w.
  assert (E : (u - w) * (u - w) * (ofQ c2 * ofQ c2) = ofQ (c1 * c1 - 4 * c0 * c2)).
  { pushQ.
    assert (E1 : ofQ c1 = - (ofQ c2 * (u + w))) by (rewrite V1; field; exact N2).
    assert (E0 : ofQ c0 = ofQ c2 * (u * w)) by (rewrite V2; field; exact N2).
    rewrite E1, E0. numerals. ring. }
  split.
  - intro H. apply ofQ_inj. rewrite ofQ_0, <- E, H. ring.
  - intro H. rewrite (ofQ_eq0 _ H) in E.
    apply mul_eq0_iff in E. destruct E as [E | E].
    + apply mul_eq0_iff in E. apply sub_eq0_iff. tauto.
    + apply mul_eq0_iff in E. tauto.
Qed.

(* a pole that is returned: f = (x^2 - 2)/(x^3 - x^2 - 2x + 2); sqrt(2) is a member of the
   model's answer and a zero of the denominator in every field *)
Lemma rational_pole_witness :
  (exists alt, solve_rational [-2#1; 0%Q; 1%Q] [2#1; -2#1; -1#1; 1%Q] = Ok (SFinite [alt]) /\ In (RSqrt (RQ (2#1))) alt)
  /\ (rad_ok (RSqrt (RQ (2#1))) -> peval [2#1; -2#1; -1#1; 1%Q] (eval (RSqrt (RQ (2#1)))) = 0).
Proof using Fth feq_dec.
  split.
  - eexists. split; [vm_compute; reflexivity | cbn [In]; left; reflexivity].
  - cbn [rad_ok eval peval]. intros [_ H]. rewrite !ofQ_int in *. rewrite ofZ_1.
    set (s := fsqrt (ofZ 2)) in *. clearbody s.
    change (-2)%Z with (- (2))%Z. change (-1)%Z with (- (1))%Z. rewrite !ofZ_opp, ofZ_1.
    numerals. nsatz'.
Qed.

(* the templates whose radicals solve_poly_quartic relies on.  The [let]s and the case analysis
   repeat those of [SolveModel.quartic_alts] term for term: [quartic_exact_local] generalises the
   quotients and the depressed coefficients in both at once, so the two must stay in step *)
Definition quartic_radicals (c0 c1 c2 c3 c4 : Q) : list rx :=
  let lc := c4 in
  let a := (c3 / lc)%Q in
  let b := (c2 / lc)%Q in
  let c := (c1 / lc)%Q in
  let d := (c0 / lc)%Q in
  if is0 d then
    let t := cubic_roots c b a 1 in [t1 t; t2 t; t3 t]
  else
    let sqa := (a * a)%Q in
    let cba := (sqa * a)%Q in
    let aby4 := (a / 4)%Q in
    let e := (b - (3 * sqa) / 8)%Q in
    let ff := ((c + cba / 8) - (a * b) / 2)%Q in
    let g := ((d + (sqa * b) / 16) - ((a * c) / 4 + (3 * cba * a) / 256))%Q in
    if is0 g then
      let t := cubic_roots ff e 0 1 in [t1 t; t2 t; t3 t]
    else if is0 ff then
      let qq := quadratic_roots g e 1 in [fst qq; snd qq; rsqrt (fst qq); rsqrt (snd qq)]
    else
      let t := cubic_roots (- ((ff * ff) / 64)) ((e * e - 4 * g) / 16) (e / 2) 1 in
      [t1 t; t2 t; t3 t; rsqrt (t1 t); rsqrt (t2 t); rsqrt (t3 t)].

Lemma cubic_roots_iff_local : forall c0 c1 c2 c3, ~ (c3 == 0)%Q ->
  rad_ok (t1 (cubic_roots c0 c1 c2 c3)) -> rad_ok (t2 (cubic_roots c0 c1 c2 c3)) ->
  rad_ok (t3 (cubic_roots c0 c1 c2 c3)) ->
  forall x, peval [c0; c1; c2; c3] x = 0 <-> vals (cubic_set c0 c1 c2 c3) x.
Proof.
  intros c0 c1 c2 c3 H3 O1 O2 O3 x.
  rewrite (cubic_factor c0 c1 c2 c3 H3 O1 O2 O3 x).
  rewrite cubic_set_vals. pose proof (ofQ_neq0 _ H3) as N3.
  rewrite !mul_eq0_iff, !sub_eq0_iff. tauto.
Qed.

Lemma pairs_in : forall s z1 z2, In (z1, z2) (pairs_of s) -> In z1 s /\ In z2 s.
Proof.
  intros s z1 z2 H. destruct s as [|x [|y [|z [|w s']]]]; cbn [pairs_of In] in *; try tauto.
  - destruct H as [H | []]. injection H as <- <-. tauto.
  - destruct H as [H | [H | []]]; injection H as <- <-; tauto.
  - destruct H as [H | [H | [H | [H | [H | [H | []]]]]]]; injection H as <- <-; tauto.
Qed.

Lemma one_nz : ~ (1 == 0)%Q.
Proof. discriminate. Qed.

Lemma vals_map_shift : forall s l x, vals (map (fun r => rsub r (rq s)) l) x <-> vals l (x + ofQ s).
Proof.
  intros s l x. rewrite vals_map. unfold vals.
  split; intros [r [Hr E]]; exists r; (split; [exact Hr|]); rewrite eval_rsub, eval_rq in *.
  - rewrite <- E. ring.
  - rewrite E. ring.
Qed.

(* g == 0: the depressed quartic is y * (y^3 + e y + ff) *)
Lemma quartic_g0 : forall e ff s x,
  let t := cubic_roots ff e 0 1 in
  rad_ok (t1 t) -> rad_ok (t2 t) -> rad_ok (t3 t) ->
  let y := x + ofQ s in
  y * peval [ff; e; 0%Q; 1%Q] y = 0 <->
  vals (set_insert (rneg (rq s)) (set_of (map (fun r => rsub r (rq s)) (cubic_set ff e 0 1)))) x.
Proof.
  intros e ff s x t O1 O2 O3 y.
  rewrite mul_eq0_iff, (cubic_roots_iff_local ff e 0 1 one_nz O1 O2 O3 y).
  rewrite vals_set_insert, vals_set_of, vals_map_shift, eval_rneg, eval_rq.
  unfold y. rewrite add_eq0_iff. tauto.
Qed.

(* ff == 0: the depressed quartic is (y^2 - q1) (y^2 - q2) for the roots q1, q2 of z^2 + e z + g *)
Lemma quartic_biquadratic : forall g e s x,
  let qq := quadratic_roots g e 1 in
  rad_ok (fst qq) -> rad_ok (snd qq) -> rad_ok (rsqrt (fst qq)) -> rad_ok (rsqrt (snd qq)) ->
  let y := x + ofQ s in
  y * y * y * y + ofQ e * y * y + ofQ g = 0 <->
  vals (set_of (flat_map (fun r => let sqrtr := rsqrt r in [rsub sqrtr (rq s); rsub (rneg sqrtr) (rq s)])
                         (set_of [fst qq; snd qq]))) x.
Proof.
  intros g e s x qq O1 O2 Os1 Os2 y.
  destruct (quadratic_vieta g e 1 one_nz O1 O2) as [V1 V2]. fold qq in V1, V2.
  rewrite ofQ_1, div_1 in V1, V2.
  assert (E : y * y * y * y + ofQ e * y * y + ofQ g = (y * y - eval (fst qq)) * (y * y - eval (snd qq))).
  { rewrite <- V2. transitivity (y * y * y * y - - ofQ e * y * y + eval (fst qq) * eval (snd qq)); [ring|].
    rewrite <- V1. ring. }
  rewrite E, mul_eq0_iff, !sub_eq0_iff, vals_set_of.
  destruct (set_of2_shape (fst qq) (snd qq)) as [[Eq ->] | ->]; cbn [flat_map app];
    rewrite !vals_cons, vals_nil, !eval_rsub, !eval_rneg, eval_rq.
  - (* q2 is a copy of q1 and was dropped from the set *)
    rewrite (rx_eqb_eval _ _ Eq), (sq_eq_iff _ _ y (rsqrt_sq _ Os1)). unfold y. rewrite !shift_iff. tauto.
  - rewrite (sq_eq_iff _ _ y (rsqrt_sq _ Os1)), (sq_eq_iff _ _ y (rsqrt_sq _ Os2)).
    unfold y. rewrite !shift_iff. tauto.
Qed.

(* Euler's method on y^4 + e y^2 + ff y + g with ff <> 0, for any two members z1, z2 of the
   root set of the resolvent cubic *)
Lemma quartic_euler : forall e ff g s z1 z2 x,
  let t := cubic_roots (- (ff * ff / 64)) ((e * e - 4 * g) / 16) (e / 2) 1 in
  rad_ok (t1 t) -> rad_ok (t2 t) -> rad_ok (t3 t) ->
  In (z1, z2) (pairs_of (cubic_set (- (ff * ff / 64)) ((e * e - 4 * g) / 16) (e / 2) 1)) ->
  rad_ok (rsqrt z1) -> rad_ok (rsqrt z2) -> ~ (ff == 0)%Q ->
  let y := x + ofQ s in
  y * y * y * y + ofQ e * y * y + ofQ ff * y + ofQ g = 0 <-> vals (euler_roots ff s z1 z2) x.
Proof.
  intros e ff g s z1 z2 x t O1 O2 O3 Hp Oz1 Oz2 Nff y.
  destruct (cubic_vieta _ _ _ _ one_nz O1 O2 O3) as (CV1 & CV2 & CV3). fold t in CV1, CV2, CV3.
  unfold cubic_set in Hp. fold t in Hp. destruct t as [[u1 u2] u3]. cbn [t1 t2 t3 fst snd] in *.
  destruct (pairs_vieta u1 u2 u3 z1 z2 Hp) as (v3 & PV1 & PV2 & PV3).
  rewrite CV1 in PV1. rewrite CV2 in PV2. rewrite CV3 in PV3.
  rewrite ofQ_1, div_1 in PV1, PV2, PV3. revert PV1 PV2 PV3. pushQ. intros PV1 PV2 PV3.
  assert (K3 : eval z1 * eval z2 * v3 = (ofQ ff * ofQ ff) / Z_ 64)
    by (rewrite PV3; field; apply ofZ_pos_neq0).
  destruct (euler (ofQ e) (ofQ ff) (ofQ g) _ _ v3 _ _ y PV1 PV2 K3 (rsqrt_sq z1 Oz1) (rsqrt_sq z2 Oz2)
              (ofQ_neq0 _ Nff)) as [N8 EU].
  cbv zeta in EU. rewrite EU. clear EU.
  unfold euler_roots. rewrite vals_set_of, !vals_cons, vals_nil.
  rewrite !eval_radd4, !eval_rneg, !eval_rdiv, eval_rmul3, !eval_rneg, !eval_rq, ofQ_int
    by (rewrite eval_rmul3, eval_rq, ofQ_int; exact N8).
  rewrite !mul_eq0_iff, !sub_eq0_iff. unfold y. rewrite !shift_iff, !sub_def. tauto.
Qed.

Theorem quartic_exact_local : forall c0 c1 c2 c3 c4, ~ (c4 == 0)%Q ->
  (forall e, In e (quartic_radicals c0 c1 c2 c3 c4) -> rad_ok e) ->
  forall alt, In alt (quartic_alts c0 c1 c2 c3 c4) ->
  forall x, peval [c0; c1; c2; c3; c4] x = 0 <-> vals alt x.
Proof using Fth fchar0 feq_dec.
  intros c0 c1 c2 c3 c4 H4 Hloc alt Halt x.
  pose proof (ofQ_neq0 _ H4) as N4.
  assert (Emonic : peval [c0; c1; c2; c3; c4] x
                   = ofQ c4 * (x * x * x * x + ofQ (c3 / c4) * x * x * x + ofQ (c2 / c4) * x * x
                               + ofQ (c1 / c4) * x + ofQ (c0 / c4))).
  { cbn [peval]. rewrite !ofQ_div by exact H4. field. exact N4. }
  rewrite Emonic, mul_eq0_iff. clear Emonic.
  match goal with |- _ \/ ?P <-> _ => transitivity P; [tauto|] end.
  revert Hloc Halt. unfold quartic_radicals, quartic_alts. cbv zeta.
  generalize (c3 / c4)%Q (c2 / c4)%Q (c1 / c4)%Q (c0 / c4)%Q. clear c0 c1 c2 c3 c4 H4 N4. intros a b c d.
  destruct (is0 d) eqn:Ed.
  - (* d == 0: x times a cubic *)
    intros Hloc [<- | []].
    rewrite vals_set_insert, eval_rq, ofQ_0, (ofQ_eq0 _ (is0_true _ Ed)).
    rewrite <- (cubic_roots_iff_local c b a 1 one_nz); [|apply Hloc; cbn [In]; auto ..].
    cbn [peval]. rewrite ofQ_1.
    transitivity (x * (ofQ c + x * (ofQ b + x * (ofQ a + x * (1 + x * 0)))) = 0).
    + match goal with |- ?l = 0 <-> ?r = 0 => replace l with r by ring end. tauto.
    + rewrite mul_eq0_iff. tauto.
  - set (aby4 := (a / 4)%Q). set (e := (b - 3 * (a * a) / 8)%Q).
    set (ff := (c + a * a * a / 8 - a * b / 2)%Q).
    set (g := (d + a * a * b / 16 - (a * c / 4 + 3 * (a * a * a) * a / 256))%Q).
    pose proof (depress (ofQ a) (ofQ b) (ofQ c) (ofQ d) x) as Edep. cbv zeta in Edep.
    replace (x * x * x * x + ofQ a * x * x * x + ofQ b * x * x + ofQ c * x + ofQ d)
      with (let y := x + ofQ aby4 in y * y * y * y + ofQ e * y * y + ofQ ff * y + ofQ g)
      by (rewrite Edep; unfold aby4, e, ff, g; pushQ; reflexivity).
    clear Edep. clearbody aby4 e ff g. clear a b c d Ed. cbv zeta.
    destruct (is0 g) eqn:Eg; [|destruct (is0 ff) eqn:Eff].
    + intros Hloc [<- | []].
      rewrite <- (quartic_g0 e ff aby4 x); [|apply Hloc; cbn [In]; auto ..].
      cbn [peval]. rewrite (ofQ_eq0 _ (is0_true _ Eg)), ofQ_0, ofQ_1.
      match goal with |- ?l = 0 <-> ?r = 0 => replace l with r by ring end. tauto.
    + destruct (quadratic_roots g e 1) as [q1 q2] eqn:Eqq. intros Hloc [<- | []].
      pose proof (quartic_biquadratic g e aby4 x) as B. rewrite Eqq in B. cbv zeta in B. cbn [fst snd] in B.
      rewrite <- B; [|apply Hloc; cbn [In]; auto ..].
      rewrite (ofQ_eq0 _ (is0_true _ Eff)).
      match goal with |- ?l = 0 <-> ?r = 0 => replace l with r by ring end. tauto.
    + intros Hloc Halt. apply in_map_iff in Halt. destruct Halt as [[z1 z2] [<- Hp]]. cbn [fst snd].
      assert (Hz : forall z, In z (cubic_set (- (ff * ff / 64)) ((e * e - 4 * g) / 16) (e / 2) 1) -> rad_ok (rsqrt z)).
      { intros z Hz. unfold cubic_set in Hz. revert Hloc Hz.
        destruct (cubic_roots _ _ _ _) as [[u1 u2] u3]. cbn [t1 t2 t3 fst snd]. intros Hloc Hz.
        apply in_set_of_sub in Hz. apply Hloc.
        destruct Hz as [<- | [<- | [<- | []]]]; cbn [In]; auto 7. }
      destruct (pairs_in _ _ _ Hp) as [Hz1 Hz2].
      apply quartic_euler; [apply Hloc; cbn [In]; auto .. | exact Hp | exact (Hz _ Hz1) | exact (Hz _ Hz2) |].
      apply is0_false. exact Eff.
Qed.

Lemma quartic_alts_nonempty : forall c0 c1 c2 c3 c4, quartic_alts c0 c1 c2 c3 c4 <> [].
Proof.
  intros. unfold quartic_alts. cbv zeta.
  destruct (is0 (c0 / c4)); [discriminate|].
  match goal with |- context [is0 ?g] => destruct (is0 g) end; [discriminate|].
  match goal with |- context [is0 ?g] => destruct (is0 g) end.
  - destruct (quadratic_roots _ _ _). discriminate.
  - unfold cubic_set. destruct (cubic_roots _ _ _ _) as [[u1 u2] u3].
    intro H. apply map_eq_nil in H. revert H. apply pairs_nonempty.
Qed.

Lemma peval_strip : forall cs x, peval (strip_high cs) x = peval cs x.
Proof.
  induction cs as [|c rest IH]; intro x; [reflexivity|].
  cbn [strip_high]. specialize (IH x).
  destruct (strip_high rest) as [|s r] eqn:E.
  - cbn [peval] in IH. destruct (is0 c) eqn:Ec; cbn [peval]; rewrite <- IH.
    + apply is0_true in Ec. rewrite (ofQ_eq0 _ Ec). ring.
    + reflexivity.
  - cbn [peval] in *. rewrite IH. reflexivity.
Qed.

Lemma strip_last_nz : forall cs l c, strip_high cs = l ++ [c] -> ~ (c == 0)%Q.
Proof.
  induction cs as [|c' rest IH]; intros l c H.
  - destruct l; discriminate.
  - cbn [strip_high] in H. destruct (strip_high rest) as [|s r] eqn:E.
    + destruct (is0 c') eqn:Ec; [destruct l; discriminate|].
      destruct l as [|x l]; [injection H as ->; apply is0_false; exact Ec|].
      destruct l; discriminate.
    + destruct l as [|x l]; [discriminate|]. injection H as -> H. exact (IH l c H).
Qed.

Lemma peval_extract : forall cs x, peval (extract_coeffs cs) x = peval cs x.
Proof.
  intros cs x. unfold extract_coeffs. pose proof (peval_strip cs x) as H.
  destruct (strip_high cs) as [|s r]; [|exact H].
  cbn [peval] in *. rewrite <- H, ofQ_0. ring.
Qed.

Lemma extract_last_nz : forall cs l c, (1 <= length l)%nat -> extract_coeffs cs = l ++ [c] -> ~ (c == 0)%Q.
Proof.
  intros cs l c Hl H. unfold extract_coeffs in H.
  destruct (strip_high cs) as [|s r] eqn:E.
  - destruct l as [|x l]; [cbn in Hl; lia|]. destruct l; discriminate.
  - apply (strip_last_nz cs l c). rewrite E. exact H.
Qed.

Definition sres_spec (cs : list Q) (s : sres) : Prop :=
  match s with
  | SDomain => forall x, peval cs x = 0
  | SEmpty => forall x, peval cs x <> 0
  | SFinite alts => alts <> [] /\ forall alt, In alt alts -> forall x, peval cs x = 0 <-> vals alt x
  | SCondition => (5 < length (extract_coeffs cs))%nat
  end.

Definition solve_poly_radicals (cs : list Q) : list rx :=
  match extract_coeffs cs with
  | [c0; c1; c2] => let qq := quadratic_roots c0 c1 c2 in [fst qq; snd qq]
  | [c0; c1; c2; c3] => let t := cubic_roots c0 c1 c2 c3 in [t1 t; t2 t; t3 t]
  | [c0; c1; c2; c3; c4] => quartic_radicals c0 c1 c2 c3 c4
  | _ => []
  end.

(* the dispatch theorem under the local hypothesis: only the radicals that the computation
   for this polynomial relies on have to satisfy their defining relations *)
Theorem solve_poly_exact_local : forall cs s,
  (forall e, In e (solve_poly_radicals cs) -> rad_ok e) ->
  solve_poly cs = Ok s -> sres_spec cs s.
Proof using Fth fchar0 feq_dec.
  intros cs s Hloc H. unfold solve_poly in H. unfold solve_poly_radicals in Hloc.
  pose proof (peval_extract cs) as Hpe. pose proof (extract_last_nz cs) as Hnz.
  destruct (extract_coeffs cs) as [|c0 [|c1 [|c2 [|c3 [|c4 [|c5 rest]]]]]] eqn:Eco;
    cbn [length Nat.leb solve_poly_heuristics lift1 solve_poly_linear solve_poly_quadratic solve_poly_cubic solve_poly_quartic] in H.
  - discriminate.
  - injection H as <-. destruct (is0 c0) eqn:E0; cbn [sres_spec]; intro x; rewrite <- Hpe; cbn [peval].
    + apply is0_true in E0. rewrite (ofQ_eq0 _ E0). ring.
    + apply is0_false in E0. intro X. apply (ofQ_neq0 _ E0). rewrite <- X. ring.
  - injection H as <-. cbn [sres_spec]. split; [discriminate|].
    intros alt [<- | []] x. rewrite <- Hpe.
    assert (N1 : ~ (c1 == 0)%Q) by (apply (Hnz [c0] c1); [cbn; lia | reflexivity]).
    destruct (linear_exact c0 c1 N1) as [r [Hr Hx]]. cbn [solve_poly_linear] in Hr. injection Hr as <-.
    rewrite Hx, vals_cons, vals_nil. tauto.
  - assert (N2 : ~ (c2 == 0)%Q) by (apply (Hnz [c0; c1] c2); [cbn; lia | reflexivity]).
    cbv zeta in Hloc.
    pose proof (quadratic_roots_iff_local c0 c1 c2 N2
                  (Hloc (fst (quadratic_roots c0 c1 c2)) ltac:(cbn [In]; tauto))
                  (Hloc (snd (quadratic_roots c0 c1 c2)) ltac:(cbn [In]; tauto))) as QF.
    cbv zeta in QF.
    destruct (quadratic_roots c0 c1 c2) as [r1 r2]. cbn [fst snd] in QF.
    injection H as <-. cbn [sres_spec]. split; [discriminate|].
    intros alt [<- | []] x. rewrite <- Hpe, QF, vals_set_of, !vals_cons, vals_nil. tauto.
  - assert (N3 : ~ (c3 == 0)%Q) by (apply (Hnz [c0; c1; c2] c3); [cbn; lia | reflexivity]).
    cbv zeta in Hloc.
    injection H as <-. cbn [sres_spec]. split; [discriminate|].
    intros alt [<- | []] x. rewrite <- Hpe.
    apply cubic_roots_iff_local; [exact N3 | | |]; apply Hloc; cbn [In]; tauto.
  - assert (N4 : ~ (c4 == 0)%Q) by (apply (Hnz [c0; c1; c2; c3] c4); [cbn; lia | reflexivity]).
    injection H as <-. cbn [sres_spec]. split; [apply quartic_alts_nonempty|].
    intros alt Ha x. rewrite <- Hpe. apply quartic_exact_local; assumption.
  - injection H as <-. cbn [sres_spec]. rewrite Eco. cbn [length]. lia.
Qed.

Theorem solve_poly_total : forall cs, exists s, solve_poly cs = Ok s.
Proof using.
  intro cs. unfold solve_poly.
  assert (Hne : extract_coeffs cs <> []) by (unfold extract_coeffs; destruct (strip_high cs); discriminate).
  destruct (extract_coeffs cs) as [|c0 [|c1 [|c2 [|c3 [|c4 [|c5 rest]]]]]]; [congruence| | | | | |];
    cbn [length Nat.leb solve_poly_heuristics lift1 solve_poly_linear solve_poly_quadratic solve_poly_cubic solve_poly_quartic].
  - eexists; reflexivity.
  - eexists; reflexivity.
  - destruct (quadratic_roots c0 c1 c2). eexists; reflexivity.
  - eexists; reflexivity.
  - eexists; reflexivity.
  - eexists; reflexivity.
Qed.

Section Total.
Hypothesis Hsqrt : forall x, fsqrt x * fsqrt x = x.
Hypothesis Hcbrt : forall x, fcbrt x * fcbrt x * fcbrt x = x.
Hypothesis Hi : fi * fi = - (1).

Lemma cubic_roots_iff : forall c0 c1 c2 c3, ~ (c3 == 0)%Q ->
  forall x, peval [c0; c1; c2; c3] x = 0 <-> vals (cubic_set c0 c1 c2 c3) x.
Proof using Fth Hcbrt Hi Hsqrt fchar0 feq_dec. intros c0 c1 c2 c3 H3. apply cubic_roots_iff_local; [exact H3 | | |]; apply (rad_ok_total Hsqrt Hcbrt Hi). Qed.

Lemma quadratic_roots_iff : forall c0 c1 c2, ~ (c2 == 0)%Q ->
  forall x, peval [c0; c1; c2] x = 0 <->
            (x = eval (fst (quadratic_roots c0 c1 c2)) \/ x = eval (snd (quadratic_roots c0 c1 c2))).
Proof using Fth Hcbrt Hi Hsqrt fchar0 feq_dec. intros c0 c1 c2 H2. apply quadratic_roots_iff_local; [exact H2 | |]; apply (rad_ok_total Hsqrt Hcbrt Hi). Qed.

Theorem quartic_exact : forall c0 c1 c2 c3 c4, ~ (c4 == 0)%Q ->
  forall alt, In alt (quartic_alts c0 c1 c2 c3 c4) ->
  forall x, peval [c0; c1; c2; c3; c4] x = 0 <-> vals alt x.
Proof using Fth Hcbrt Hi Hsqrt fchar0 feq_dec.
  intros c0 c1 c2 c3 c4 H4. apply quartic_exact_local; [exact H4|]. intros e _. apply (rad_ok_total Hsqrt Hcbrt Hi).
Qed.

Theorem solve_poly_exact : forall cs s, solve_poly cs = Ok s -> sres_spec cs s.
Proof using Fth Hcbrt Hi Hsqrt fchar0 feq_dec.
  intros cs s. apply solve_poly_exact_local. intros e _. apply (rad_ok_total Hsqrt Hcbrt Hi).
Qed.

Lemma set_diff_sub : forall a b v, vals (set_diff a b) v -> vals a v.
Proof.
  intros a b v [r [Hr E]]. unfold set_diff in Hr. apply filter_In in Hr. exists r. tauto.
Qed.

Lemma set_diff_complete : forall a b v, vals a v -> ~ vals b v -> vals (set_diff a b) v.
Proof.
  intros a b v [r [Hr E]] Hb. exists r. split; [|exact E].
  unfold set_diff. apply filter_In. split; [exact Hr|].
  destruct (set_mem r b) eqn:M; [|reflexivity].
  exfalso. apply Hb. destruct (set_mem_eval _ _ M) as [y [Hy Ey]]. exists y. split; [exact Hy|]. congruence.
Qed.

Definition is_rq (e : rx) : bool := match e with RQ _ => true | _ => false end.

Lemma set_diff_rq_excl : forall a b v,
  forallb is_rq a = true -> forallb is_rq b = true -> vals (set_diff a b) v -> ~ vals b v.
Proof.
  intros a b v Ha Hb [r [Hr E]] [y [Hy Ey]].
  unfold set_diff in Hr. apply filter_In in Hr. destruct Hr as [Hr M].
  rewrite forallb_forall in Ha, Hb. specialize (Ha r Hr). specialize (Hb y Hy).
  destruct r; try discriminate. destruct y; try discriminate.
  cbn [eval] in *. assert (X : (q == q0)%Q) by (apply ofQ_inj; congruence).
  apply Bool.negb_true_iff in M. unfold set_mem in M.
  assert (M' : existsb (rx_eqb (RQ q)) b = true).
  { apply existsb_exists. exists (RQ q0). split; [exact Hy|]. cbn [rx_eqb]. apply Qeq_bool_iff. exact X. }
  congruence.
Qed.

Lemma solve_polyexpr_eq : forall cs, solve_polyexpr cs = solve_poly cs.
Proof.
  intro cs. unfold solve_polyexpr, solve_poly.
  destruct (extract_coeffs cs) as [|c0 [|c1 rest]]; reflexivity.
Qed.

(* every solution of num = 0 that is not a pole is returned, in every alternative;
   everything returned is a zero of the numerator *)
Theorem solve_rational_complete : forall num den s,
  has_symbol_poly den = true -> solve_rational num den = Ok s ->
  match s with
  | SFinite alts => forall alt, In alt alts ->
       (forall x, peval num x = 0 -> peval den x <> 0 -> vals alt x) /\
       (forall x, vals alt x -> peval num x = 0)
  | SEmpty => forall x, peval num x = 0 -> peval den x <> 0 -> False
  | _ => True
  end.
Proof using Fth Hcbrt Hi Hsqrt fchar0 feq_dec.
  intros num den s Hsym H. unfold solve_rational in H. rewrite Hsym, !solve_polyexpr_eq in H.
  destruct (solve_poly num) as [a| | |] eqn:Ea; try discriminate.
  destruct (solve_poly den) as [b| | |] eqn:Eb; try discriminate.
  injection H as <-.
  pose proof (solve_poly_exact _ _ Ea) as Sa. pose proof (solve_poly_exact _ _ Eb) as Sb.
  destruct a as [| |aa|]; cbn [complement norm_empty]; try exact I.
  - cbn [sres_spec] in Sa. intros x Hx _. exact (Sa x Hx).
  - cbn [sres_spec] in Sa. destruct Sa as [Hne Sa].
    destruct b as [| |bb|]; cbn [complement norm_empty]; try exact I.
    + (* the denominator never vanishes *)
      destruct (forallb _ aa) eqn:Eall.
      * intros x Hx _. destruct aa as [|al aa']; [congruence|].
        cbn [forallb] in Eall. apply andb_prop in Eall. destruct Eall as [Eal _].
        destruct al; [|discriminate]. apply (Sa [] (or_introl eq_refl) x) in Hx. apply vals_nil in Hx. exact Hx.
      * intros alt Ha. split; intros x; [intros Hx _|intro Hv]; apply (Sa alt Ha x); assumption.
    + cbn [sres_spec] in Sb. destruct Sb as [Hneb Sb].
      set (alts := flat_map (fun x => map (fun y => set_diff x y) bb) aa).
      assert (Hin : forall alt, In alt alts -> exists xa yb, In xa aa /\ In yb bb /\ alt = set_diff xa yb).
      { intros alt Ha. unfold alts in Ha. apply in_flat_map in Ha. destruct Ha as [xa [Hxa Ha]].
        apply in_map_iff in Ha. destruct Ha as [yb [<- Hyb]]. exists xa, yb. tauto. }
      assert (Hall : forall alt, In alt alts ->
                (forall x, peval num x = 0 -> peval den x <> 0 -> vals alt x) /\
                (forall x, vals alt x -> peval num x = 0)).
      { intros alt Ha. destruct (Hin alt Ha) as [xa [yb [Hxa [Hyb ->]]]]. split.
        - intros x Hx Hd. apply set_diff_complete; [apply (Sa xa Hxa x); exact Hx|].
          intro Hv. apply Hd. apply (Sb yb Hyb x). exact Hv.
        - intros x Hv. apply (Sa xa Hxa x). eapply set_diff_sub. exact Hv. }
      destruct (forallb _ alts) eqn:Eall; [|exact Hall].
      intros x Hx Hd.
      destruct aa as [|xa aa']; [congruence|]. destruct bb as [|yb bb']; [congruence|].
      assert (Ha : In (set_diff xa yb) alts) by (unfold alts; cbn [flat_map map]; left; reflexivity).
      rewrite forallb_forall in Eall. specialize (Eall _ Ha).
      destruct (Hall _ Ha) as [Hc _]. specialize (Hc x Hx Hd).
      destruct (set_diff xa yb); [apply vals_nil in Hc; exact Hc | discriminate].
Qed.

(* with rational roots only, poles are excluded exactly *)
Theorem solve_rational_exact_guarded : forall num den la lb,
  has_symbol_poly den = true ->
  solve_poly num = Ok (SFinite [la]) -> solve_poly den = Ok (SFinite [lb]) ->
  forallb is_rq la = true -> forallb is_rq lb = true ->
  forall x, vals (set_diff la lb) x <-> (peval num x = 0 /\ peval den x <> 0).
Proof using Fth Hcbrt Hi Hsqrt fchar0 feq_dec.
  intros num den la lb Hsym Ea Eb Ga Gb x.
  pose proof (solve_poly_exact _ _ Ea) as [_ Sa]. pose proof (solve_poly_exact _ _ Eb) as [_ Sb].
  specialize (Sa la (or_introl eq_refl) x). specialize (Sb lb (or_introl eq_refl) x).
  split.
  - intro Hv. split; [apply Sa; eapply set_diff_sub; exact Hv|].
    intro Hd. apply Sb in Hd. exact (set_diff_rq_excl la lb x Ga Gb Hv Hd).
  - intros [Hn Hd]. apply set_diff_complete; [apply Sa; exact Hn|]. intro Hv. apply Hd. apply Sb. exact Hv.
Qed.

End Total.

End Sem.
