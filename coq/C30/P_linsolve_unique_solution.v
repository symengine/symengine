(* C30 obligation: linsolve returns the solution of every uniquely solvable square linear
   system (n equations, n unknowns, rational entries); otherwise it throws "Matrix is rank
   deficient", and then the coefficient matrix is singular; it never leaves its vectors.
   [sys] is the augmented n x (n+1) matrix: columns 0..n-1 = A, column n = b;
   [nonsingular n A]: the only y with A y = 0 is y = 0 (C24.DenseFFGJ2).
   The second theorem is the same for the (A, b) pair that linsolve(equations, syms) passes to
   linsolve_helper. *)
From SE Require Import C24.DenseModel C24.DenseBase C24.DenseSpec C24.DenseFFGJ2 C30.LinsolveModel C30.LinsolveProofs.
Local Open Scope N_scope.
Theorem C30_linsolve_unique_solution :
  forall (sys : dmat) (n : N),
  good sys n (n + 1) -> 0 < n ->
  (exists xs, linsolve_dense sys = Ok xs /\ length xs = N.to_nat n /\
      (forall k, k < n -> is_fin (nthx xs k)) /\
      forall i, i < n -> sumN n (fun k => (val sys i k * qv (nthx xs k))%Qc) = val sys i n)
  \/ (linsolve_dense sys = ErrExn EXN_RANKDEF /\ ~ nonsingular n (fm_of sys)).
Proof. exact linsolve_dense_dichotomy. Qed.
Print Assumptions C30_linsolve_unique_solution.

Theorem C30_linsolve_helper_unique_solution :
  forall (A b : dmat) (n : N),
  good A n n -> good b n 1 ->
  (exists xs, linsolve_helper A b = Ok xs /\ length xs = N.to_nat n /\
      (forall k, k < n -> is_fin (nthx xs k)) /\
      forall i, i < n -> sumN n (fun k => (val A i k * qv (nthx xs k))%Qc) = val b i 0)
  \/ (linsolve_helper A b = ErrExn EXN_RANKDEF /\ ~ nonsingular n (fm_of A)).
Proof. exact linsolve_helper_dichotomy. Qed.
Print Assumptions C30_linsolve_helper_unique_solution.
