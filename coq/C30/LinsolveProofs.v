(* C30 -- linsolve returns a solution of the square system, or throws "Matrix is rank
   deficient" and the coefficient matrix is singular.  Built on the theorems of property C24 about
   fraction_free_gauss_jordan_solve (C24.DenseFFGJ2.ffgj_solve_dichotomy) and submatrix_dense. *)
From SE Require Import C24.DenseModel C24.DenseBase C24.DenseSpec C24.DenseOps2 C24.DenseFFGJ2
  C30.LinsolveModel.
From Coq Require Import List Lia.
Import ListNotations.
Local Open Scope N_scope.
Local Open Scope res_scope.

Lemma collect_col0_spec : forall M, wf M -> dcol M = 1 ->
  forall k i, i + N.of_nat k <= drow M ->
  exists xs, collect_col0 M i k = Ok xs /\ length xs = k /\
             forall j, (j < k)%nat -> nth j xs x0 = entry M (i + N.of_nat j) 0.
Proof.
  intros M W C1. induction k as [|k IH]; intros i Hi.
  - exists []. repeat split. intros j Hj. lia.
  - cbn [collect_col0]. unfold mget. rewrite C1.
    assert (Hlt : i * 1 + 0 < lenN (dm M)) by (unfold wf in W; rewrite W, C1; lia).
    rewrite (rd_ok _ _ Hlt). cbn [bind].
    destruct (IH (i + 1)) as [xs [E [L Hn]]]; [lia|].
    rewrite E. cbn [bind]. exists (nthx (dm M) (i * 1 + 0) :: xs). split; [reflexivity|]. split; [cbn; lia|].
    intros [|j] Hj.
    + cbn [nth]. unfold entry, ent. rewrite C1. f_equal. lia.
    + cbn [nth]. rewrite Hn by lia. f_equal. lia.
Qed.

Theorem linsolve_helper_dichotomy : forall A b n,
  good A n n -> good b n 1 ->
  (exists xs, linsolve_helper A b = Ok xs /\ length xs = N.to_nat n /\
      (forall k, k < n -> is_fin (nthx xs k)) /\
      forall i, i < n -> sumN n (fun k => (val A i k * qv (nthx xs k))%Qc) = val b i 0)
  \/ (linsolve_helper A b = ErrExn EXN_RANKDEF /\ ~ nonsingular n (fm_of A)).
Proof.
  intros A b n GA Gb.
  assert (HrA : drow A = n) by (destruct GA as [_ [_ [H _]]]; exact H).
  destruct (ffgj_solve_dichotomy A b (mzero n 1) n 1 GA Gb (wf_mzero n 1) eq_refl eq_refl)
    as [[x' [E [[Wx [Fx [Rx Cx]]] HM]]] | [E HS]].
  - left. unfold linsolve_helper. rewrite HrA, E. cbn [bind]. rewrite Rx.
    destruct (collect_col0_spec x' Wx Cx (N.to_nat n) 0) as [xs [Ec [L Hn]]]; [lia|].
    exists xs. split; [exact Ec|]. split; [exact L|].
    assert (Hx : forall k, k < n -> nthx xs k = entry x' k 0).
    { intros k Hk. unfold nthx. rewrite Hn by lia. f_equal. lia. }
    split.
    + intros k Hk. rewrite (Hx k Hk). unfold entry, ent. apply Fx.
      unfold wf in Wx. rewrite Wx, Rx, Cx. lia.
    + intros i Hi. specialize (HM i 0 Hi ltac:(lia)). unfold fm_mul, fm_of in HM.
      rewrite <- HM. apply sumN_ext. intros k Hk. rewrite (Hx k Hk). reflexivity.
  - right. split; [|exact HS]. unfold linsolve_helper. rewrite HrA, E. reflexivity.
Qed.

Lemma fin_mat_of_entries : forall M, wf M ->
  (forall i j, i < drow M -> j < dcol M -> is_fin (entry M i j)) -> fin_mat M.
Proof.
  intros M W H k Hk. unfold wf in W. rewrite W in Hk.
  destruct (N.eq_dec (dcol M) 0) as [Z | NZ]; [rewrite Z in Hk; lia|].
  assert (Ek : k = k / dcol M * dcol M + k mod dcol M) by (rewrite N.mul_comm; apply N.div_mod; exact NZ).
  assert (Hj : k mod dcol M < dcol M) by (apply N.mod_lt; exact NZ).
  assert (Hi : k / dcol M < drow M).
  { apply N.div_lt_upper_bound; try exact NZ; lia. }
  specialize (H _ _ Hi Hj). unfold entry, ent in H. rewrite <- Ek in H. exact H.
Qed.

Lemma nonsingular_ext : forall n A B, fm_eq n n A B -> nonsingular n A -> nonsingular n B.
Proof.
  intros n A B HE HA y Hy k Hk. apply (HA y); [|exact Hk].
  intros i j Hi Hj. specialize (Hy i j Hi Hj). unfold fm_mul in *. cbv beta in *.
  rewrite <- Hy. apply sumN_ext. intros t Ht. rewrite (HE i t Hi Ht). reflexivity.
Qed.

(* the n x (n+1) augmented system: columns 0..n-1 are A, column n is b *)
Theorem linsolve_dense_dichotomy : forall sys n,
  good sys n (n + 1) -> 0 < n ->
  (exists xs, linsolve_dense sys = Ok xs /\ length xs = N.to_nat n /\
      (forall k, k < n -> is_fin (nthx xs k)) /\
      forall i, i < n -> sumN n (fun k => (val sys i k * qv (nthx xs k))%Qc) = val sys i n)
  \/ (linsolve_dense sys = ErrExn EXN_RANKDEF /\ ~ nonsingular n (fm_of sys)).
Proof.
  intros sys n [W [Fs [R C]]] Hn.
  unfold linsolve_dense. rewrite R, C.
  replace ((n =? 0) || (n + 1 <? 2)) with false
    by (symmetry; apply Bool.orb_false_iff; split; [apply N.eqb_neq | apply N.ltb_ge]; lia).
  replace (n + 1 - 1) with n by lia. replace (n + 1 - 2) with (n - 1) by lia.
  destruct (submatrix_dense_spec sys (mzero n n) 0 0 (n - 1) (n - 1)) as [A [EA [WA [RA [CA HA]]]]];
    try (apply wf_mzero); try exact W; try (cbn [mzero drow dcol]; lia).
  destruct (submatrix_dense_spec sys (mzero n 1) 0 n (n - 1) n) as [b [Eb [Wb [Rb [Cb Hb]]]]];
    try (apply wf_mzero); try exact W; try (cbn [mzero drow dcol]; lia).
  rewrite EA. cbn [bind]. rewrite Eb. cbn [bind].
  cbn [mzero drow dcol] in RA, CA, Rb, Cb, HA, Hb.
  assert (Fin_sys : forall i j, i < n -> j < n + 1 -> is_fin (entry sys i j)).
  { intros i j Hi Hj. unfold entry, ent. apply Fs. unfold wf in W. rewrite W, R, C. nia. }
  assert (GA : good A n n).
  { split; [exact WA|]. split; [|split; assumption].
    apply fin_mat_of_entries; [exact WA|]. rewrite RA, CA. intros i j Hi Hj.
    rewrite HA by assumption. apply Fin_sys; lia. }
  assert (Gb : good b n 1).
  { split; [exact Wb|]. split; [|split; assumption].
    apply fin_mat_of_entries; [exact Wb|]. rewrite Rb, Cb. intros i j Hi Hj.
    rewrite Hb by assumption. apply Fin_sys; lia. }
  assert (VA : forall i k, i < n -> k < n -> val A i k = val sys i k).
  { intros i k Hi Hk. unfold val. rewrite HA by assumption. reflexivity. }
  assert (Vb : forall i, i < n -> val b i 0 = val sys i n).
  { intros i Hi. unfold val. rewrite Hb by lia. rewrite N.add_0_r. reflexivity. }
  destruct (linsolve_helper_dichotomy A b n GA Gb) as [[xs [E [L [Fx Hx]]]] | [E HS]].
  - left. exists xs. split; [exact E|]. split; [exact L|]. split; [exact Fx|].
    intros i Hi. rewrite <- (Vb i Hi), <- (Hx i Hi). apply sumN_ext. intros k Hk.
    rewrite (VA i k Hi Hk). reflexivity.
  - right. split; [exact E|]. intro NS. apply HS.
    apply (nonsingular_ext n (fm_of sys)); [|exact NS].
    intros i k Hi Hk. unfold fm_of. symmetry. apply VA; assumption.
Qed.
