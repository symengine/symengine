(* C30 obligation: the two expressions root1, root2 computed by solve_poly_quadratic factor the
   polynomial: c2 x^2 + c1 x + c0 = c2 (x - root1)(x - root2) identically, in any field of
   characteristic 0 and for any value of the square root occurring in them whose square is its
   argument.  Hence both are roots, every root is one of them, and multiplicities are right. *)
From Coq Require Import QArith List.
From SE Require Import Base.Prelude C30.SolveModel C30.SolveProofs C30.SolveSpec.
Import ListNotations.
Theorem C30_quadratic_sound_complete :
  forall (K : radfield) (c0 c1 c2 : Q), ~ (c2 == 0)%Q ->
    let rr := quadratic_roots c0 c1 c2 in
    rad_okK K (fst rr) -> rad_okK K (snd rr) ->
    forall x : K, pevalK K [c0; c1; c2] x
                  = fmul K (fmul K (ofQK K c2) (fsub K x (evalK K (fst rr)))) (fsub K x (evalK K (snd rr))).
Proof. intro K. exact (quadratic_factor K _ _ _ _ _ _ _ _ (Fth K) (feq_dec K) (fchar0 K) (fsqrt K) (fcbrt K) (fi K)). Qed.
Print Assumptions C30_quadratic_sound_complete.
