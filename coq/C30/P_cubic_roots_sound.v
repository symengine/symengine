(* C30 obligation: the three expressions computed by solve_poly_cubic (all branches: zero
   constant term, triple root, double root, Cardano with the Cexpr == 0 swap) factor the
   polynomial identically: c3 x^3 + ... + c0 = c3 (x - r1)(x - r2)(x - r3), for any values of
   the radicals occurring in them that satisfy sqrt(a)^2 = a, cbrt(a)^3 = a, i^2 = -1. *)
From Coq Require Import QArith List.
From SE Require Import Base.Prelude C30.SolveModel C30.SolveProofs C30.SolveSpec.
Import ListNotations.
Theorem C30_cubic_roots_sound :
  forall (K : radfield) (c0 c1 c2 c3 : Q), ~ (c3 == 0)%Q ->
    let t := cubic_roots c0 c1 c2 c3 in
    rad_okK K (t1 t) -> rad_okK K (t2 t) -> rad_okK K (t3 t) ->
    forall x : K, pevalK K [c0; c1; c2; c3] x
      = fmul K (fmul K (fmul K (ofQK K c3) (fsub K x (evalK K (t1 t)))) (fsub K x (evalK K (t2 t))))
               (fsub K x (evalK K (t3 t))).
Proof. intro K. exact (cubic_factor K _ _ _ _ _ _ _ _ (Fth K) (feq_dec K) (fchar0 K) (fsqrt K) (fcbrt K) (fi K)). Qed.
Print Assumptions C30_cubic_roots_sound.
