(* C30 obligation: solve_poly_linear returns exactly the root of c1*x + c0 (any field of
   characteristic 0). *)
From Coq Require Import QArith List.
From SE Require Import Base.Prelude C30.SolveModel C30.SolveProofs C30.SolveSpec.
Import ListNotations.
Theorem C30_linear_sound_complete :
  forall (K : radfield) (c0 c1 : Q), ~ (c1 == 0)%Q ->
    exists r, solve_poly_linear [c0; c1] = Ok [r] /\
              forall x : K, pevalK K [c0; c1] x = f0 K <-> x = evalK K r.
Proof. intro K. exact (linear_exact K _ _ _ _ _ _ _ _ (Fth K) (fchar0 K) (fsqrt K) (fcbrt K) (fi K)). Qed.
Print Assumptions C30_linear_sound_complete.
