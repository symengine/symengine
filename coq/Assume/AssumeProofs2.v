(* C34 -- part 2: the value of the arguments built by Add::get_args / Mul::get_args, and the
   soundness of IntegerVisitor, RealVisitor, ComplexVisitor, RationalVisitor, FiniteVisitor, is_even / is_odd. *)
From SE Require Import Assume.AssumeSem Num.NumQi Assume.AssumeProofs.
From Coq Require Import QArith Qabs List ZArith Lia Lqa.
Import ListNotations.
Local Open Scope Q_scope.

Lemma setbool_no_value : forall rho e, is_setbool e = true -> denote rho e = None.
Proof.
  intros rho e H. destruct e; try discriminate H; try reflexivity.
  - cbn in H. apply N.eqb_eq in H. subst code. cbn [denote]. destruct (vfin (denote rho e)); reflexivity.
  - unfold is_setbool, is_set, is_boolean in H. cbn [is_relational] in H.
    repeat (apply orb_prop in H; destruct H as [H|H]); try discriminate H; apply N.eqb_eq in H; subst code; reflexivity.
Qed.
(* the default case of IntegerVisitor, RealVisitor, ComplexVisitor on an expression with a value *)
Lemma default_TI : forall rho e t v,
  denote rho e = Some v -> (if is_setbool e then QT TF else QT TI) = QT t -> t = TI.
Proof.
  intros rho e t v D H. destruct (is_setbool e) eqn:SB; [|now injection H].
  rewrite (setbool_no_value _ _ SB) in D. discriminate D.
Qed.

Definition fac_sem (rho : valuation) (p : expr * expr) (acc : option qi) : option qi :=
  mul_step (vfin (denote rho (fst p))) (vfin (denote rho (snd p))) acc.

Lemma denote_EMul : forall rho c d,
  denote rho (EMul c d) = opt_vc (fold_right (fac_sem rho) (vfin (num_val c)) d).
Proof. reflexivity. Qed.

Lemma fold_fac_none : forall rho d, fold_right (fac_sem rho) None d = None.
Proof. induction d as [|p r IH]; cbn [fold_right]; [reflexivity|]. rewrite IH. reflexivity. Qed.

Lemma fac_step : forall rho p r init z,
  fold_right (fac_sem rho) init (p :: r) = Some z ->
  exists bz xz f s, vfin (denote rho (fst p)) = Some bz /\ vfin (denote rho (snd p)) = Some xz /\
    pow_fin bz xz = Some f /\ fold_right (fac_sem rho) init r = Some s /\ z = qi_mul f s.
Proof.
  intros rho p r init z F. cbn [fold_right] in F. unfold fac_sem at 1, mul_step in F.
  destruct (fold_right (fac_sem rho) init r) as [s|]; [|discriminate F].
  destruct (vfin (denote rho (fst p))) as [bz|]; [|discriminate F].
  destruct (vfin (denote rho (snd p))) as [xz|]; [|discriminate F].
  destruct (pow_fin bz xz) as [f|] eqn:PF; [|discriminate F]. injection F as <-. eauto 10.
Qed.

(* a sum or a product with a value is a finite number *)
Lemma sum_value : forall rho c d v, denote rho (EAdd c d) = Some v ->
  exists cz z, vfin (num_val c) = Some cz /\ fold_right (term_sem rho) (Some cz) d = Some z /\ v = VC z.
Proof.
  intros rho c d v D. rewrite denote_EAdd in D.
  destruct (vfin (num_val c)) as [cz|]; [|rewrite fold_term_none in D; discriminate D].
  destruct (fold_right (term_sem rho) (Some cz) d) as [z|] eqn:F; [|discriminate D]. injection D as <-. eauto.
Qed.
Lemma product_value : forall rho c d v, denote rho (EMul c d) = Some v ->
  exists cz z, vfin (num_val c) = Some cz /\ fold_right (fac_sem rho) (Some cz) d = Some z /\ v = VC z.
Proof.
  intros rho c d v D. rewrite denote_EMul in D.
  destruct (vfin (num_val c)) as [cz|]; [|rewrite fold_fac_none in D; discriminate D].
  destruct (fold_right (fac_sem rho) (Some cz) d) as [z|] eqn:F; [|discriminate D]. injection D as <-. eauto.
Qed.

(* a power with a value: base and exponent are finite numbers, the value is a finite power or the pole *)
Lemma power_value : forall rho b x v, denote rho (EPow b x) = Some v ->
  exists bz xz, vfin (denote rho b) = Some bz /\ vfin (denote rho x) = Some xz /\
    (v = VZoo \/ exists f, pow_fin bz xz = Some f /\ v = VC f).
Proof.
  intros rho b x v D. cbn [denote] in D.
  destruct (vfin (denote rho b)) as [bz|]; [|discriminate D].
  destruct (vfin (denote rho x)) as [xz|]; [|discriminate D].
  exists bz, xz. split; [reflexivity|]. split; [reflexivity|]. unfold pow_val in D. unfold pow_fin.
  destruct (qi_pow bz xz) as [f| |]; try discriminate D; injection D as <-; eauto.
Qed.

(* the same dictionary under another coefficient: the product scales *)
Lemma fold_fac_scale : forall rho d a x, fold_right (fac_sem rho) (Some a) d = Some x ->
  forall b, exists y, fold_right (fac_sem rho) (Some b) d = Some y /\ qi_eq (qi_mul a y) (qi_mul b x).
Proof.
  induction d as [|p r IH]; intros a x F b.
  - cbn in F. injection F as <-. exists b. split; [reflexivity|]. apply qi_mul_comm.
  - destruct (fac_step rho p r (Some a) x F) as (bz & xz & f & s & D1 & D2 & PF & Fs & ->).
    destruct (IH a s Fs b) as (y & Fy & E). exists (qi_mul f y). split.
    + cbn [fold_right]. rewrite Fy. unfold fac_sem, mul_step. rewrite D1, D2, PF. reflexivity.
    + rewrite (qi_mul_assoc a f y), (qi_mul_comm a f), <- (qi_mul_assoc f a y), E.
      rewrite (qi_mul_assoc f b s), (qi_mul_comm f b), <- (qi_mul_assoc b f s). reflexivity.
Qed.

Lemma pow_fin_one : forall z, exists f, pow_fin z (inject_Z 1, 0) = Some f /\ qi_eq f z.
Proof.
  intro z. unfold pow_fin, qi_pow. cbn [fst snd].
  exists (qi_mul z qi_one). split; [reflexivity|]. apply qi_mul_1_r.
Qed.

Lemma num_one_val : forall v, n_is_int_one v = true -> vfin (num_val v) = Some (inject_Z 1, 0).
Proof. intros [z| | | | | |] H; try discriminate H. cbn in H. apply Z.eqb_eq in H. subst. reflexivity. Qed.

(* the Mul dictionary made of the key of a term has, under a coefficient, the value of the key times the coefficient;
   a key that is a product has the coefficient one in a canonical sum *)
Lemma term_dict_value : forall rho k kz vz,
  (match k with EMul c' _ => n_is_int_one c' | _ => true end) = true ->
  vfin (denote rho k) = Some kz ->
  exists y, fold_right (fac_sem rho) (Some vz) (term_dict k) = Some y /\ qi_eq y (qi_mul vz kz).
Proof.
  intros rho k kz vz K Dk.
  assert (GEN : term_dict k = [(k, ENum (NInt 1))] ->
            exists y, fold_right (fac_sem rho) (Some vz) (term_dict k) = Some y /\ qi_eq y (qi_mul vz kz)).
  { intro T. rewrite T. cbn [fold_right]. unfold fac_sem, mul_step. cbn [fst snd]. rewrite Dk. cbn [denote num_val vfin].
    destruct (pow_fin_one kz) as (f & PF & E). rewrite PF. exists (qi_mul f vz). split; [reflexivity|].
    rewrite E. apply qi_mul_comm. }
  destruct k; try (apply GEN; reflexivity).
  - (* the key is a product with coefficient one: its own dictionary *)
    cbn [term_dict]. rewrite denote_EMul, (num_one_val coef K) in Dk.
    destruct (fold_right (fac_sem rho) (Some (inject_Z 1, 0)) d) as [x|] eqn:F; [|discriminate Dk].
    cbn in Dk. injection Dk as <-.
    destruct (fold_fac_scale rho d _ _ F vz) as (y & Fy & E). exists y. split; [exact Fy|].
    rewrite <- E. symmetry. apply (qi_mul_1_l y).
  - (* the key is a power: base and exponent are the entry *)
    destruct (power_value rho k1 k2 _ (vfin_some _ _ Dk)) as (bz & xz & Db & Dx & [E|(f & PF & E)]); [discriminate E|].
    injection E as ->. cbn [term_dict fold_right]. unfold fac_sem, mul_step. cbn [fst snd].
    rewrite Db, Dx, PF. exists (qi_mul f vz). split; [reflexivity|]. apply qi_mul_comm.
Qed.

(* Add::get_args: the argument rebuilt for the term key*value has the value of the term *)
Lemma add_arg_value : forall rho k v kz vz,
  (match k with EMul c' _ => n_is_int_one c' | _ => true end) = true ->
  vfin (denote rho k) = Some kz -> vfin (num_val v) = Some vz ->
  exists az, vfin (denote rho (add_arg (k, v))) = Some az /\ qi_eq az (qi_mul vz kz).
Proof.
  intros rho k v kz vz K Dk Dv. unfold add_arg. cbn [fst snd].
  destruct (n_is_int_one v) eqn:V1.
  - rewrite (num_one_val v V1) in Dv. injection Dv as <-. exists kz. split; [exact Dk|]. symmetry. apply (qi_mul_1_l kz).
  - destruct (term_dict_value rho k kz vz K Dk) as (y & F & E). exists y. split; [|exact E].
    rewrite denote_EMul, Dv, F. reflexivity.
Qed.

(* Mul::get_args: the argument for base**exp has the value of the factor *)
Lemma mul_arg_value : forall rho b x bz xz f,
  vfin (denote rho b) = Some bz -> vfin (denote rho x) = Some xz -> pow_fin bz xz = Some f ->
  exists az, vfin (denote rho (mul_arg (b, x))) = Some az /\ qi_eq az f.
Proof.
  intros rho b x bz xz f Db Dx PF. unfold mul_arg. cbn [fst snd].
  destruct (e_is_int_one x) eqn:X1.
  - destruct x as [n| | | | | | | | | | | | | | | | | ]; try discriminate X1. cbn [e_is_int_one] in X1.
    cbn [denote] in Dx. rewrite (num_one_val n X1) in Dx. injection Dx as <-.
    destruct (pow_fin_one bz) as (f' & PF' & E). rewrite PF in PF'. injection PF' as <-.
    exists bz. split; [exact Db | now symmetry].
  - cbn [denote]. rewrite Db, Dx. unfold pow_val. unfold pow_fin in PF.
    destruct (qi_pow bz xz) as [g| |]; try discriminate PF. injection PF as ->.
    exists f. split; reflexivity.
Qed.

Lemma prod_closed : forall P : qi -> Prop, (forall x y, P x -> P y -> P (qi_mul x y)) ->
  forall rho d a z, P a -> fold_right (fac_sem rho) (Some a) d = Some z ->
  (forall p bz xz f, In p d -> vfin (denote rho (fst p)) = Some bz -> vfin (denote rho (snd p)) = Some xz ->
     pow_fin bz xz = Some f -> P f) -> P z.
Proof.
  intros P Pmul rho. induction d as [|p r IH]; intros a z Pa F T.
  - cbn in F. injection F as <-. exact Pa.
  - destruct (fac_step rho p r (Some a) z F) as (bz & xz & f & s & D1 & D2 & PF & Fs & ->).
    apply Pmul.
    + apply (T p bz xz f); auto. left. reflexivity.
    + apply (IH a s Pa Fs). intros q bz' xz' f' Hq. apply T. right. exact Hq.
Qed.

Lemma keys_ok_add : forall c d, keys_ok (EAdd c d) = true ->
  forall p, In p d -> (match fst p with EMul c' _ => n_is_int_one c' | _ => true end) = true /\ keys_ok (fst p) = true.
Proof.
  intros c d K p Hp. cbn [keys_ok] in K. rewrite forallb_forall in K. specialize (K p Hp).
  apply andb_prop in K. exact K.
Qed.
Lemma keys_ok_mul : forall c d, keys_ok (EMul c d) = true ->
  forall p, In p d -> keys_ok (fst p) = true /\ keys_ok (snd p) = true.
Proof.
  intros c d K p Hp. cbn [keys_ok] in K. rewrite forallb_forall in K. specialize (K p Hp).
  apply andb_prop in K. exact K.
Qed.
Lemma keys_ok_term_dict : forall k, keys_ok k = true -> forall v, keys_ok (EMul v (term_dict k)) = true.
Proof.
  intros k K v.
  assert (GEN : term_dict k = [(k, ENum (NInt 1))] -> keys_ok (EMul v (term_dict k)) = true).
  { intro T. rewrite T. cbn [keys_ok forallb fst snd]. rewrite K. reflexivity. }
  destruct k; try (apply GEN; reflexivity).
  - cbn [term_dict]. exact K.
  - cbn [term_dict keys_ok forallb fst snd] in *. rewrite K. reflexivity.
Qed.
Lemma keys_ok_add_arg : forall c d, keys_ok (EAdd c d) = true -> forall a, In a (add_args c d) -> keys_ok a = true.
Proof.
  intros c d K a Ha. unfold add_args in Ha. apply in_app_or in Ha. destruct Ha as [Ha|Ha].
  - destruct (n_is_zero c); [contradiction|]. destruct Ha as [<-|[]]. reflexivity.
  - apply in_map_iff in Ha. destruct Ha as (p & <- & Hp). destruct (keys_ok_add c d K p Hp) as [_ K2].
    unfold add_arg. destruct (n_is_int_one (snd p)); [exact K2|]. now apply keys_ok_term_dict.
Qed.
Lemma keys_ok_mul_arg : forall c d, keys_ok (EMul c d) = true -> forall a, In a (mul_args c d) -> keys_ok a = true.
Proof.
  intros c d K a Ha. unfold mul_args in Ha. apply in_app_or in Ha. destruct Ha as [Ha|Ha].
  - destruct (n_is_one c); [contradiction|]. destruct Ha as [<-|[]]. reflexivity.
  - apply in_map_iff in Ha. destruct Ha as (p & <- & Hp). destruct (keys_ok_mul c d K p Hp) as [K1 K2].
    unfold mul_arg. destruct (e_is_int_one (snd p)); [exact K1|]. cbn [keys_ok]. rewrite K1, K2. reflexivity.
Qed.

(* every term of a sum is the value of its get_args argument *)
Lemma add_args_values : forall rho c d, keys_ok (EAdd c d) = true ->
  forall p kz vz, In p d -> vfin (denote rho (fst p)) = Some kz -> vfin (num_val (snd p)) = Some vz ->
  exists a az, In a (add_args c d) /\ vfin (denote rho a) = Some az /\ qi_eq az (qi_mul vz kz).
Proof.
  intros rho c d K [k w] kz vz Hp Dk Dv. destruct (keys_ok_add c d K _ Hp) as [K1 _].
  destruct (add_arg_value rho k w kz vz K1 Dk Dv) as (az & Da & E). exists (add_arg (k, w)), az.
  split; [|split; assumption]. unfold add_args. apply in_or_app. right. now apply in_map.
Qed.

(* a set of values closed under addition contains a sum as soon as it contains the get_args arguments *)
Lemma add_args_closed : forall (P : qi -> Prop),
  (forall x y, qi_eq x y -> P x -> P y) -> (forall x y, P x -> P y -> P (qi_add x y)) ->
  (forall z, qi_eq z qi_zero -> P z) ->
  forall rho c d v, keys_ok (EAdd c d) = true -> denote rho (EAdd c d) = Some v ->
  (forall a az, In a (add_args c d) -> vfin (denote rho a) = Some az -> P az) ->
  exists z, v = VC z /\ P z.
Proof.
  intros P Peq Padd Pzero rho c d v K D T. destruct (sum_value rho c d v D) as (cz & z & EC & F & ->).
  exists z. split; [reflexivity|].
  apply (sum_closed P P Padd rho d cz z); auto.
  - pose proof (num_qi_zero c cz EC) as Z. destruct (n_is_zero c) eqn:EZ; [now apply Pzero|].
    apply (T (ENum c)); [|exact EC]. unfold add_args. rewrite EZ. left. reflexivity.
  - intros p kz vz Hp Dk Dv. destruct (add_args_values rho c d K p kz vz Hp Dk Dv) as (a & az & Ha & Da & E).
    exact (Peq az _ E (T a az Ha Da)).
Qed.

Lemma mul_args_closed : forall (P : qi -> Prop),
  (forall x y, qi_eq x y -> P x -> P y) -> (forall x y, P x -> P y -> P (qi_mul x y)) ->
  P (inject_Z 1, 0) ->
  forall rho c d v, denote rho (EMul c d) = Some v ->
  (forall a az, In a (mul_args c d) -> vfin (denote rho a) = Some az -> P az) ->
  exists z, v = VC z /\ P z.
Proof.
  intros P Peq Pmul Pone rho c d v D T. destruct (product_value rho c d v D) as (cz & z & EC & F & ->).
  exists z. split; [reflexivity|].
  apply (prod_closed P Pmul rho d cz z); auto.
  - destruct (n_is_one c) eqn:Z.
    + unfold n_is_one in Z. rewrite (num_one_val c Z) in EC. injection EC as <-. exact Pone.
    + apply (T (ENum c)); [|exact EC]. unfold mul_args. rewrite Z. left. reflexivity.
  - intros p bz xz f Hp Db Dx PF. destruct p as [b x]. cbn [fst snd] in *.
    destruct (mul_arg_value rho b x bz xz f Db Dx PF) as (az & Da & E).
    apply (Peq az); [exact E|]. apply (T (mul_arg (b, x))); [|exact Da].
    unfold mul_args. apply in_or_app. right. apply in_map_iff. exists (b, x). auto.
Qed.

Definition qi_int (z : qi) : Prop := qi_real z /\ q_isint (fst z).

Lemma qi_int_eq : forall x y, qi_eq x y -> qi_int x -> qi_int y.
Proof.
  intros [a b] [c d] [E1 E2] [R [k K]]. unfold qi_int, qi_real in *. cbn [fst snd] in *. split.
  - rewrite <- E2. exact R.
  - exists k. rewrite <- E1. exact K.
Qed.
Lemma qi_int_add : forall x y, qi_int x -> qi_int y -> qi_int (qi_add x y).
Proof.
  intros [a b] [c d] [R1 [k K]] [R2 [m M]]. unfold qi_int, qi_real, qi_add in *. cbn [fst snd] in *. split.
  - lra.
  - exists (k + m)%Z. rewrite inject_Z_plus, K, M. reflexivity.
Qed.
Lemma qi_int_mul : forall x y, qi_int x -> qi_int y -> qi_int (qi_mul x y).
Proof.
  intros [a b] [c d] [R1 [k K]] [R2 [m M]]. unfold qi_int, qi_real, qi_mul in *. cbn [fst snd] in *. split.
  - nra.
  - exists (k * m)%Z. rewrite inject_Z_mult, K, M. rewrite R1, R2. ring.
Qed.
Lemma qi_int_zero : forall z, qi_eq z qi_zero -> qi_int z.
Proof. intros [a b] [E1 E2]. cbn [qi_zero fst snd] in *. split; [exact E2|]. exists 0%Z. exact E1. Qed.
Lemma qi_int_one : qi_int (inject_Z 1, 0).
Proof. split; [reflexivity|]. exists 1%Z. reflexivity. Qed.
Lemma qi_int_conj : forall z, qi_int (qi_conj z) <-> qi_int z.
Proof. intros [a b]. unfold qi_int, qi_conj, qi_real. cbn [fst snd]. split; intros [R I]; split; auto; lra. Qed.

Lemma v_integer_VC : forall z, v_integer (VC z) <-> qi_int z.
Proof. intro z. reflexivity. Qed.

Lemma rat_canon_not_int : forall p d, rat_canon p d = true -> ~ q_isint (Qmake p d).
Proof.
  intros p d C [k K]. unfold rat_canon in C. apply andb_prop in C. destruct C as [C1 C2].
  apply Z.eqb_eq in C1. apply Z.ltb_lt in C2. unfold Qeq in K. cbn in K.
  (* p = k * d, so d divides gcd p d = 1 *)
  assert (DV : (Z.pos d | Z.gcd p (Z.pos d))%Z).
  { apply Z.gcd_greatest; [|apply Z.divide_refl]. exists k. lia. }
  rewrite C1 in DV. apply Z.divide_1_r_nonneg in DV; lia.
Qed.

Lemma num_integer_sound : forall n v, num_val n = Some v -> answers (tri_of_bool (n_is_integer n)) (v_integer v).
Proof.
  intros n v D. destruct (num_val_kind n v D) as [n q Hq|rn rd imn imd NZ|p|p| |]; [ | |apply answers_TF; intros [] ..].
  - destruct n as [k|p d| | | | |]; try discriminate Hq; cbn in Hq.
    + injection Hq as <-. apply answers_TT. split; [reflexivity|]. exists k. reflexivity.
    + destruct (rat_canon p d) eqn:C; [|discriminate Hq]. injection Hq as <-.
      apply answers_TF. intros [_ I]. exact (rat_canon_not_int p d C I).
  - apply answers_TF. intros [K _]. exact (NZ K).
Qed.

(* for (arg : args) { accept; if (not true) { indeterminate; return; } }: the loop never makes up a false *)
Lemma all_true_loop_inv : forall vis l last t, all_true_loop vis l last = QT t ->
  (t = TT -> Forall (fun a => vis a = QT TT) l) /\ (t = TF -> last = QT TF).
Proof.
  intros vis. induction l as [|a r IH]; intros last t H; cbn [all_true_loop] in H.
  - subst last. split; [constructor | intros ->; reflexivity].
  - apply qbind_QT in H as (u & E & H). destruct u; cbn [t_true] in H; try (injection H as <-; split; discriminate).
    destruct (IH _ _ H) as [I1 I2]. split; intro K; [constructor; auto | discriminate (I2 K)].
Qed.

Theorem integer_sound_fuel : forall rho A, oassum_ok rho A -> forall fuel e t v, keys_ok e = true ->
  q_integer A fuel e = QT t -> denote rho e = Some v -> (t = TT -> v_integer v) /\ (t = TF -> ~ v_integer v).
Proof.
  intros rho A O. induction fuel as [|f IH]; intros e t v K H D; [discriminate H|].
  (* the loop over get_args: every argument is an integer, or the answer is indeterminate *)
  assert (ARGS : forall args, (forall a, In a args -> keys_ok a = true) ->
            all_true_loop (q_integer A f) args QUnsup = QT t ->
            t <> TF /\ (t = TT -> forall a az, In a args -> vfin (denote rho a) = Some az -> qi_int az)).
  { intros args KA L. destruct (all_true_loop_inv _ _ _ _ L) as [L1 L2]. split; [intro E; discriminate (L2 E)|].
    intros E a az Ha Da. pose proof (proj1 (Forall_forall _ _) (L1 E) a Ha) as Q.
    exact (proj1 (IH a TT (VC az) (KA a Ha) Q (vfin_some _ _ Da)) eq_refl). }
  cbn [q_integer] in H. destruct e; try (rewrite (default_TI rho _ t v D H); exact (answers_TI _)).
  - injection H as <-. now apply num_integer_sound.
  - destruct (sym_set_sound rho A a_integer v_integer _ t v O (ok_integer rho) H D) as [S1 S2].
    split; [exact S1 | intro E; contradiction].
  - discriminate D.
  - discriminate D.
  - (* Add *)
    destruct (ARGS _ (keys_ok_add_arg coef d K) H) as [NF ALL]. split; intro E; [|contradiction].
    destruct (add_args_closed qi_int qi_int_eq qi_int_add qi_int_zero rho coef d v K D (ALL E)) as (z & -> & Pz). exact Pz.
  - (* Mul *)
    destruct (ARGS _ (keys_ok_mul_arg coef d K) H) as [NF ALL]. split; intro E; [|contradiction].
    destruct (mul_args_closed qi_int qi_int_eq qi_int_mul qi_int_one rho coef d v D (ALL E)) as (z & -> & Pz). exact Pz.
  - (* one-argument functions: conjugate *)
    destruct (code =? TC_Conjugate)%N eqn:C.
    + cbn [denote] in D. destruct (vfin (denote rho e)) as [z|] eqn:V; [|discriminate D].
      apply N.eqb_eq in C. subst code. cbn in D. injection D as <-. cbn [keys_ok] in K.
      refine (answers_iff t _ _ _ (IH e t (VC z) K H (vfin_some _ _ V))). symmetry. apply qi_int_conj.
    + destruct (code =? TC_Not)%N eqn:CN; injection H as <-; [|exact (answers_TI _)].
      apply N.eqb_eq in CN. subst code. cbn [denote] in D.
      destruct (vfin (denote rho e)); discriminate D.
  - (* two-argument functions *)
    discriminate D.
Qed.

Theorem integer_sound : forall rho A, oassum_ok rho A -> forall e t v, keys_ok e = true ->
  is_integer A e = QT t -> denote rho e = Some v -> (t = TT -> v_integer v) /\ (t = TF -> ~ v_integer v).
Proof. intros rho A O e t v K H D. eapply integer_sound_fuel; eauto. Qed.

Lemma q_as_int_sound : forall x n, q_as_int x = Some n -> x == inject_Z n.
Proof.
  intros x n H. unfold q_as_int in H. destruct (Pos.eqb (Qden (Qred x)) 1) eqn:E; [|discriminate H].
  injection H as <-. apply Pos.eqb_eq in E. rewrite <- (Qred_correct x) at 1.
  destruct (Qred x) as [a b]. cbn [Qnum Qden] in *. subst b. reflexivity.
Qed.
Lemma q_as_int_complete : forall x n, x == inject_Z n -> q_as_int x = Some n.
Proof.
  intros x n H. unfold q_as_int. rewrite (Qred_complete x (inject_Z n) H).
  assert (R : Qred (inject_Z n) = inject_Z n).
  { unfold Qred, inject_Z. pose proof (Z.ggcd_correct_divisors n 1) as C. pose proof (Z.ggcd_gcd n 1) as G.
    destruct (Z.ggcd n 1) as [g [aa bb]]. cbn [fst snd] in *. rewrite Z.gcd_1_r in G. subst g.
    destruct C as [C1 C2]. rewrite Z.mul_1_l in C1, C2. subst aa bb. reflexivity. }
  rewrite R. reflexivity.
Qed.

Lemma qi_real_mul : forall x y, qi_real x -> qi_real y -> qi_real (qi_mul x y).
Proof. intros x y X Y. exact (proj1 (real_mul x y X Y)). Qed.
Lemma qi_real_add : forall x y, qi_real x -> qi_real y -> qi_real (qi_add x y).
Proof. intros [a b] [c d]. unfold qi_real, qi_add. cbn [fst snd]. intros B D. lra. Qed.
Lemma qi_real_eq : forall x y, qi_eq x y -> qi_real x -> qi_real y.
Proof. intros [a b] [c d] [E1 E2]. unfold qi_real. cbn [fst snd] in *. intro R. rewrite <- E2. exact R. Qed.
Lemma qi_real_zero : forall z, qi_eq z qi_zero -> qi_real z.
Proof. intros [a b] [E1 E2]. exact E2. Qed.
Lemma qi_real_one : qi_real (inject_Z 1, 0).
Proof. reflexivity. Qed.
Lemma qi_real_pow_nat : forall x n, qi_real x -> qi_real (qi_pow_nat x n).
Proof. intros x n R. induction n as [|n IH]; cbn [qi_pow_nat]; [reflexivity | now apply qi_real_mul]. Qed.
Lemma qi_real_inv : forall y, qi_real y -> qi_real (qi_inv y).
Proof.
  intros [c d]. unfold qi_real, qi_inv, qi_div, qi_one, qi_norm2. cbn [fst snd]. intro D.
  unfold Qdiv. assert (E : 0 * c - 1 * d == 0) by lra. rewrite E. ring.
Qed.
Lemma qi_real_powz : forall x k, qi_real x -> qi_real (qi_powz x k).
Proof.
  intros x k R. destruct k; cbn [qi_powz]; [reflexivity | now apply qi_real_pow_nat |].
  apply qi_real_inv. now apply qi_real_pow_nat.
Qed.

Lemma psqrt_nonneg_real : forall b s, psqrt b = Some s -> 0 <= fst b -> qi_real s.
Proof.
  intros b s H P. unfold psqrt in H. destruct (qi_is_realb b); [|discriminate H].
  destruct (qsqrt (Qabs (fst b))) as [r|]; [|discriminate H]. injection H as <-.
  assert (L : Qle_bool 0 (fst b) = true) by (apply Qle_bool_iff; exact P). rewrite L. reflexivity.
Qed.

(* base^x is real when x is an integer and the base is real ... *)
Lemma pow_fin_real_int : forall b x f, qi_real b -> qi_int x -> pow_fin b x = Some f -> qi_real f.
Proof.
  intros b x f Rb [Rx [k K]] H. unfold pow_fin, qi_pow in H.
  assert (E1 : qi_is_realb x = true) by (apply qi_is_realb_iff; exact Rx). rewrite E1 in H.
  rewrite (q_as_int_complete (fst x) k K) in H.
  destruct ((k <? 0)%Z && qi_is_zerob b); [discriminate H|]. injection H as <-. now apply qi_real_powz.
Qed.
(* ... or x is real and the base is a nonnegative real *)
Lemma pow_fin_real_nonneg : forall b x f, qi_real b -> 0 <= fst b -> qi_real x -> pow_fin b x = Some f -> qi_real f.
Proof.
  intros b x f Rb Pb Rx H. unfold pow_fin, qi_pow in H.
  assert (E1 : qi_is_realb x = true) by (apply qi_is_realb_iff; exact Rx). rewrite E1 in H.
  destruct (q_as_int (fst x)) as [k|].
  - destruct ((k <? 0)%Z && qi_is_zerob b); [discriminate H|]. injection H as <-. now apply qi_real_powz.
  - destruct (q_as_int (2 * fst x)) as [m|]; [|discriminate H].
    destruct (psqrt b) as [s|] eqn:PS; [|discriminate H].
    destruct ((m <? 0)%Z && qi_is_zerob b); [discriminate H|]. injection H as <-.
    apply qi_real_powz. now apply (psqrt_nonneg_real b s PS).
Qed.
Lemma pow_fin_zero_exp : forall b x f, qi_eq x qi_zero -> pow_fin b x = Some f -> qi_real f.
Proof.
  intros b x f [Z1 Z2] H. cbn [qi_zero fst snd] in Z1, Z2. unfold pow_fin, qi_pow in H.
  assert (E1 : qi_is_realb x = true) by (apply qi_is_realb_iff; exact Z2). rewrite E1 in H.
  rewrite (q_as_int_complete (fst x) 0%Z Z1) in H. cbn in H. injection H as <-. reflexivity.
Qed.

Lemma num_real_sound : forall n v, num_val n = Some v ->
  (if n_is_a_Complex n || n_is_inf n || n_is_nan n then TF else TT) = TT -> v_real v.
Proof.
  intros n v D H. destruct (num_val_kind n v D) as [n q Hq|rn rd imn imd NZ|p|p| |]; try discriminate H. reflexivity.
Qed.

Lemma real_add_loop_TT : forall vis l b nr,
  real_add_loop vis l b nr = QT TT -> b = TT /\ Forall (fun a => vis a = QT TT) l.
Proof.
  intros vis. induction l as [|a r IH]; intros b nr H; cbn [real_add_loop] in H.
  - injection H as ->. split; [reflexivity | constructor].
  - apply qbind_QT in H as (t & E & H).
    destruct (t_false t && _); [discriminate H|].
    destruct (t_indet (andwk_tribool b t)) eqn:I.
    + injection H as H. rewrite H in I. discriminate I.
    + destruct (IH _ _ H) as [B F]. destruct (andwk_TT _ _ B) as [-> ->]. split; [reflexivity|].
      constructor; [exact E | exact F].
Qed.

Lemma real_mul_loop_TT : forall chk d b nr,
  real_mul_loop chk d b nr = QT TT -> b = TT /\ Forall (fun p => chk (fst p) (snd p) = QT TT) d.
Proof.
  intros chk. induction d as [|[k v] r IH]; intros b nr H; cbn [real_mul_loop] in H.
  - destruct (Nat.eqb nr 1); [discriminate H|]. injection H as ->. split; [reflexivity | constructor].
  - apply qbind_QT in H as (t & E & H).
    destruct (t_false t && _); [discriminate H|].
    destruct (t_indet (andwk_tribool b t)) eqn:I; [discriminate H|].
    destruct (IH _ _ H) as [B F]. destruct (andwk_TT _ _ B) as [-> ->]. split; [reflexivity|].
    constructor; [exact E | exact F].
Qed.

Lemma q_real_sign_guard : forall A f e, q_real A f e = QT TT -> sign_guard e = true.
Proof.
  intros A f e H. destruct f as [|f]; [discriminate H|].
  destruct e as [n| | | | | | | | | | | | | | | | | ]; try reflexivity.
  destruct n; try reflexivity; cbn in H; discriminate H.
Qed.

(* the rule of RealVisitor for a power base^x, for a base and an exponent with finite values and sound answers on
   both: the exponent is zero, or the base is real and the exponent an integer, or the base is nonnegative and the
   exponent real *)
Lemma real_power_sound : forall rho A, oassum_ok rho A -> forall f,
  (forall e v, keys_ok e = true -> q_real A f e = QT TT -> denote rho e = Some v -> v <> VZoo -> v_real v) ->
  forall base x bz xz fz, keys_ok base = true -> keys_ok x = true -> q_real A (S f) (EPow base x) = QT TT ->
  vfin (denote rho base) = Some bz -> vfin (denote rho x) = Some xz -> pow_fin bz xz = Some fz -> qi_real fz.
Proof.
  intros rho A O f IH base x bz xz fz Kb Kx C Db Dx PF. apply vfin_some in Db, Dx. cbn [q_real] in C.
  apply qbind_QT in C as (z & EZ & C). destruct (t_true z) eqn:TZ.
  { destruct z; try discriminate TZ. apply (pow_fin_zero_exp bz xz fz); auto.
    exact (proj1 (zero_sound rho A O x TT (VC xz) EZ Dx) eq_refl). }
  apply qbind_QT in C as (rb & ER & C). destruct rb; cbn [t_true t_false] in C.
  { discriminate C. }
  { apply qbind_QT in C as (cb & _ & C). destruct (t_true cb); [|discriminate C].
    apply qbind_QT in C as (z1 & _ & C). destruct (t_true z1); discriminate C. }
  assert (Rb : qi_real bz) by (apply (IH base (VC bz) Kb ER Db); discriminate).
  apply qbind_QT in C as (ix & EI & C). destruct (t_true ix) eqn:TI.
  { destruct ix; try discriminate TI. apply (pow_fin_real_int bz xz fz); auto.
    exact (proj1 (integer_sound rho A O x TT (VC xz) Kx EI Dx) eq_refl). }
  apply qbind_QT in C as (nb & EN & C). destruct nb; cbn [t_true] in C; try discriminate C.
  apply qbind_QT in C as (rx & EX & C). destruct rx; cbn [t_false] in C; try discriminate C.
  assert (Rx : qi_real xz) by (apply (IH x (VC xz) Kx EX Dx); discriminate).
  destruct (proj1 (nonnegative_sound rho A O base TT (VC bz) EN Db) eq_refl) as [_ Pb].
  now apply (pow_fin_real_nonneg bz xz fz).
Qed.

Theorem real_sound_fuel : forall rho A, oassum_ok rho A -> forall fuel e v, keys_ok e = true ->
  q_real A fuel e = QT TT -> denote rho e = Some v -> v <> VZoo -> v_real v.
Proof.
  intros rho A O. induction fuel as [|f IH]; intros e v K H D NZ; [discriminate H|].
  pose proof (real_power_sound rho A O f IH) as CP.
  cbn [q_real] in H. destruct e; try (destruct (is_setbool _); discriminate H); try discriminate D.
  - injection H as H. exact (num_real_sound n v D H).
  - exact (proj1 (sym_set_sound rho A a_real v_real _ TT v O (ok_real rho) H D) eq_refl).
  - (* Add *)
    destruct (real_add_loop_TT _ _ _ _ H) as [_ ALL]. rewrite Forall_forall in ALL.
    destruct (add_args_closed qi_real qi_real_eq qi_real_add qi_real_zero rho coef d v K D) as (z & -> & Pz); [|exact Pz].
    intros a az Ha Da.
    apply (IH a (VC az) (keys_ok_add_arg coef d K a Ha) (ALL a Ha) (vfin_some _ _ Da)). discriminate.
  - (* Mul *)
    destruct (real_mul_loop_TT _ _ _ _ H) as [B ALL]. rewrite Forall_forall in ALL.
    destruct (product_value rho coef d v D) as (cz & z & EC & F & ->).
    cbn [v_real]. apply (prod_closed qi_real qi_real_mul rho d cz z); auto.
    + destruct (num_fin_cases coef cz EC) as [(q & _ & ->)|(rn & rd & imn & imd & -> & _)]; [reflexivity|].
      cbn in B. discriminate B.
    + intros p bz xz fz Hp Db Dx PF. destruct (keys_ok_mul coef d K p Hp) as [K1 K2].
      apply (CP (fst p) (snd p) bz xz fz K1 K2 (ALL p Hp) Db Dx PF).
  - (* Pow *)
    cbn [keys_ok] in K. apply andb_prop in K. destruct K as [K1 K2].
    destruct (power_value rho e1 e2 v D) as (bz & xz & Db & Dx & [->|(fz & PF & ->)]); [now elim NZ|].
    exact (CP e1 e2 bz xz fz K1 K2 H Db Dx PF).
Qed.

(* is_real(e) = true: the value is real, unless it is the pole 0^negative *)
Theorem real_sound_guarded : forall rho A, oassum_ok rho A -> forall e v, keys_ok e = true ->
  is_real A e = QT TT -> denote rho e = Some v -> v <> VZoo -> v_real v.
Proof. intros rho A O e v K H D NZ. eapply real_sound_fuel; eauto. Qed.

Lemma opt_vc_some : forall o v, opt_vc o = Some v -> exists z, v = VC z.
Proof. intros [z|] v H; [|discriminate H]. injection H as <-. eauto. Qed.

(* only a literal or a pole has a value that is not a finite number *)
Lemma denote_shape : forall rho e v, denote rho e = Some v ->
  (exists n, e = ENum n) \/ v = VZoo \/ exists z, v = VC z.
Proof.
  intros rho e v D. destruct e; try discriminate D.
  - left. eauto.
  - right. right. cbn in D. injection D as <-. eauto.
  - right. right. destruct (sum_value rho _ _ v D) as (cz & z & _ & _ & ->). eauto.
  - right. right. destruct (product_value rho _ _ v D) as (cz & z & _ & _ & ->). eauto.
  - right. destruct (power_value rho _ _ v D) as (bz & xz & _ & _ & [->|(f & _ & ->)]); eauto.
  - right. right. cbn [denote] in D. destruct (vfin (denote rho e)) as [z|]; [|discriminate D].
    destruct (code =? TC_Abs)%N; [exact (opt_vc_some _ _ D)|].
    destruct (code =? TC_Sign)%N; [exact (opt_vc_some _ _ D)|].
    destruct (code =? TC_Conjugate)%N; [injection D as <-; eauto|].
    destruct (code =? TC_Floor)%N; [exact (opt_vc_some _ _ D)|].
    destruct (code =? TC_Ceiling)%N; [exact (opt_vc_some _ _ D) | discriminate D].
  - right. right. cbn [denote] in D.
    destruct (code =? TC_Max)%N; [|destruct (code =? TC_Min)%N; [|discriminate D]];
      (destruct (reals_of _) as [rs|]; [|discriminate D]).
    + destruct (q_maxl rs); [|discriminate D]. injection D as <-. eauto.
    + destruct (q_minl rs); [|discriminate D]. injection D as <-. eauto.
Qed.

(* is_complex(e) = true: the value is a (finite) complex number, unless it is the pole 0^negative *)
Theorem complex_true_sound : forall rho A e v,
  is_complex A e = QT TT -> denote rho e = Some v -> v <> VZoo -> v_complex v.
Proof.
  intros rho A e v H D NZ. destruct (denote_shape rho e v D) as [[n ->]|[->|[z ->]]]; [|now elim NZ|exact I].
  cbn in H. injection H as H. cbn [denote] in D.
  destruct (num_val_kind n v D) as [n q Hq|rn rd imn imd NI|p|p| |]; try discriminate H; exact I.
Qed.

Lemma first_not_true_TF : forall (X : Type) (vis : X -> qr) l last,
  first_not_true vis l last = QT TF -> last <> QT TF -> exists a, In a l /\ vis a = QT TF.
Proof.
  intros X vis. induction l as [|a r IH]; intros last H NL; cbn [first_not_true] in H.
  - contradiction.
  - apply qbind_QT in H as (t & E & H). destruct (t_true t) eqn:T.
    + destruct (IH (QT TT) H) as (b & Hb & Vb); [discriminate|]. exists b. split; [right; exact Hb | exact Vb].
    + injection H as ->. exists a. split; [left; reflexivity | exact E].
Qed.

(* the one-argument functions with a value are among those ComplexVisitor passes through *)
Lemma denote_EF1_some : forall rho c a v, denote rho (EF1 c a) = Some v ->
  (exists z, vfin (denote rho a) = Some z) /\ c_passthrough c = true.
Proof.
  intros rho c a v D. cbn [denote] in D. destruct (vfin (denote rho a)) as [z|]; [|discriminate D].
  split; [eauto|]. unfold c_passthrough.
  destruct (c =? TC_Abs)%N eqn:E1; [rewrite !orb_true_r; reflexivity|].
  destruct (c =? TC_Sign)%N eqn:E2; [rewrite !orb_true_r; reflexivity|].
  destruct (c =? TC_Conjugate)%N eqn:E3; [rewrite !orb_true_r; reflexivity|].
  destruct (c =? TC_Floor)%N eqn:E4; [rewrite !orb_true_r; reflexivity|].
  destruct (c =? TC_Ceiling)%N eqn:E5; [rewrite !orb_true_r; reflexivity|]. discriminate D.
Qed.

(* in a sum / product with a value every term / factor has one *)
Lemma terms_defined : forall rho d init z, fold_right (term_sem rho) init d = Some z ->
  forall p, In p d -> exists kz vz, vfin (denote rho (fst p)) = Some kz /\ vfin (num_val (snd p)) = Some vz.
Proof.
  induction d as [|q r IH]; intros init z F p Hp; [contradiction|].
  destruct (term_step rho q r init z F) as (kz & vz & s & Dk & Dv & Fs & _).
  destruct Hp as [->|Hp]; [eauto | exact (IH init s Fs p Hp)].
Qed.
Lemma factors_defined : forall rho d init z, fold_right (fac_sem rho) init d = Some z ->
  forall p, In p d -> exists bz xz, vfin (denote rho (fst p)) = Some bz /\ vfin (denote rho (snd p)) = Some xz.
Proof.
  induction d as [|q r IH]; intros init z F p Hp; [contradiction|].
  destruct (fac_step rho q r init z F) as (bz & xz & f & s & D1 & D2 & _ & Fs & _).
  destruct Hp as [->|Hp]; [eauto | exact (IH init s Fs p Hp)].
Qed.

Lemma add_args_defined : forall rho c d v, keys_ok (EAdd c d) = true -> denote rho (EAdd c d) = Some v ->
  forall a, In a (add_args c d) -> exists az, vfin (denote rho a) = Some az.
Proof.
  intros rho c d v K D a Ha. destruct (sum_value rho c d v D) as (cz & z & EC & F & _).
  unfold add_args in Ha. apply in_app_or in Ha. destruct Ha as [Ha|Ha].
  - destruct (n_is_zero c); [contradiction|]. destruct Ha as [<-|[]]. exists cz. exact EC.
  - apply in_map_iff in Ha. destruct Ha as (p & <- & Hp).
    destruct (terms_defined rho d _ z F p Hp) as (kz & vz & Dk & Dv). destruct (keys_ok_add c d K p Hp) as [K1 _].
    destruct p as [k w]. destruct (add_arg_value rho k w kz vz K1 Dk Dv) as (az & Da & _). eauto.
Qed.

(* is_complex(e) = false: the value is not a finite complex number *)
Theorem complex_false_sound_fuel : forall rho A fuel e v, keys_ok e = true ->
  q_complex A fuel e = QT TF -> denote rho e = Some v -> ~ v_complex v.
Proof.
  intros rho A. induction fuel as [|f IH]; intros e v K H D; [discriminate H|].
  assert (FIN : forall a az, keys_ok a = true -> q_complex A f a = QT TF -> vfin (denote rho a) = Some az -> False).
  { intros a az Ka Q Da. exact (IH a (VC az) Ka Q (vfin_some _ _ Da) I). }
  assert (CP : forall b x bz xz, keys_ok b = true -> keys_ok x = true -> q_complex A (S f) (EPow b x) = QT TF ->
            vfin (denote rho b) = Some bz -> vfin (denote rho x) = Some xz -> False).
  { intros b x bz xz Kb Kx C Db Dx. cbn [q_complex] in C. apply qbind_QT in C as (t & EB & C).
    destruct (t_true t); [exact (FIN x xz Kx C Dx) | injection C as ->; exact (FIN b bz Kb EB Db)]. }
  cbn [q_complex] in H. destruct e; try discriminate (default_TI rho _ TF v D H); try discriminate D.
  - (* numbers *)
    injection H as H. destruct (num_val_kind n v D) as [n q Hq|rn rd imn imd NI|p|p| |]; try (intros []).
    + destruct (num_q_real n q Hq) as (_ & _ & F3 & F4). rewrite F3, F4 in H. discriminate H.
    + discriminate H.
  - elim (sym_set_not_TF A a_complex _ H).
  - (* Add *)
    destruct (first_not_true_TF _ _ _ _ H) as (a & Ha & Va); [discriminate|].
    destruct (add_args_defined rho coef d v K D a Ha) as (az & Da).
    exfalso. exact (FIN a az (keys_ok_add_arg coef d K a Ha) Va Da).
  - (* Mul *)
    destruct (first_not_true_TF _ _ _ _ H) as (p & Hp & Vp); [discriminate|].
    destruct (product_value rho coef d v D) as (cz & z & _ & F & _).
    destruct (factors_defined rho d _ z F p Hp) as (bz & xz & Db & Dx).
    destruct (keys_ok_mul coef d K p Hp) as [K1 K2].
    exfalso. exact (CP (fst p) (snd p) bz xz K1 K2 Vp Db Dx).
  - (* Pow *)
    cbn [keys_ok] in K. apply andb_prop in K. destruct K as [K1 K2].
    destruct (power_value rho e1 e2 v D) as (bz & xz & Db & Dx & _).
    exfalso. exact (CP e1 e2 bz xz K1 K2 H Db Dx).
  - (* one-argument functions *)
    destruct (denote_EF1_some rho code e v D) as [(z & Dz) PT]. rewrite PT in H.
    cbn [keys_ok] in K. exfalso. exact (FIN e z K H Dz).
Qed.

Theorem complex_false_sound : forall rho A e v, keys_ok e = true ->
  is_complex A e = QT TF -> denote rho e = Some v -> ~ v_complex v.
Proof. intros rho A e v K H D. eapply complex_false_sound_fuel; eauto. Qed.

(* is_rational answers true only for Integer and Rational literals (and sums that end with one);
   the last visited argument decides the answer of a sum *)
Theorem rational_true_sound : forall rho e v,
  (forall c d, e <> EAdd c d) -> is_rational e = QT TT -> denote rho e = Some v -> v_rational v.
Proof.
  intros rho e v NA H D. unfold is_rational, rational_apply in H.
  destruct (q_rational (fuel_of e) e) as [r nb] eqn:Q. cbn in H. injection H as ->.
  unfold fuel_of in Q. cbn [Nat.add Nat.mul] in Q. rewrite Nat.add_comm in Q. cbn [Nat.add q_rational] in Q.
  destruct e; try (destruct (is_setbool _); discriminate Q); try discriminate Q.
  - destruct n as [k|p d| | | | |]; try discriminate Q; cbn in D.
    + injection D as <-. reflexivity.
    + destruct (rat_canon p d); [|discriminate D]. injection D as <-. reflexivity.
  - destruct (_ || _); discriminate Q.
  - exfalso. now apply (NA coef d).
Qed.

Theorem rational_false_sound_literal : forall rho n v,
  is_rational (ENum n) = QT TF -> denote rho (ENum n) = Some v -> ~ v_rational v.
Proof.
  intros rho n v H D. cbn [denote] in D.
  destruct (num_val_kind n v D) as [n q Hq|rn rd imn imd NI|p|p| |]; [ |exact NI|intros [] ..].
  destruct n; try discriminate Hq; discriminate H.
Qed.

Theorem finite_sound : forall rho A, oassum_ok rho A -> forall e t v,
  is_finite A e = QT t -> denote rho e = Some v -> (t = TT -> v_finite v) /\ (t = TF -> v_infinite v).
Proof.
  intros rho A O e t v H D. unfold is_finite in H.
  destruct e; try (destruct (is_setbool _); [discriminate H | injection H as <-; split; discriminate]); try discriminate D.
  - cbn [denote] in D. destruct (num_val_kind n v D) as [n q Hq|rn rd imn imd NI|p|p| |]; try discriminate H.
    + destruct (num_q_real n q Hq) as (_ & _ & F3 & F4). rewrite F3, F4 in H. injection H as <-. split; [intros _; exact I | discriminate].
    + injection H as <-. split; [intros _; exact I | discriminate].
    + injection H as <-. split; [discriminate | intros _; exact I].
    + injection H as <-. split; [discriminate | intros _; exact I].
    + injection H as <-. split; [discriminate | intros _; exact I].
  - destruct (sym_set_sound rho A a_complex v_complex _ t v O (ok_complex rho) H D) as [S1 S2].
    split; [exact S1 | intro E; contradiction].
Qed.

(* is_even(e) = is_integer(e/2), is_odd(e) = is_integer((e+1)/2): sound whenever the quotient
   built by the library has the value it should have *)
Theorem even_sound : forall rho A, oassum_ok rho A -> forall e half z h, keys_ok half = true ->
  is_even_via A half = QT TT -> denote rho e = Some (VC z) -> denote rho half = Some (VC h) ->
  qi_eq (qi_add h h) z -> v_even (VC z).
Proof.
  intros rho A O e half z h K H D Dh E.
  destruct (integer_sound rho A O half TT (VC h) K H Dh) as [I _]. destruct (I eq_refl) as [R [k Kk]].
  destruct z as [a b]. destruct h as [c d]. destruct E as [E1 E2]. unfold qi_real in *. cbn [fst snd qi_add] in *.
  cbn [v_even]. unfold qi_real. cbn [fst snd]. split; [lra|]. exists k. rewrite <- E1, Kk, inject_Z_mult. change (inject_Z 2) with 2. ring.
Qed.
Theorem odd_sound : forall rho A, oassum_ok rho A -> forall e half z h, keys_ok half = true ->
  is_odd_via A half = QT TT -> denote rho e = Some (VC z) -> denote rho half = Some (VC h) ->
  qi_eq (qi_add h h) (qi_add z (inject_Z 1, 0)) -> v_odd (VC z).
Proof.
  intros rho A O e half z h K H D Dh E.
  destruct (integer_sound rho A O half TT (VC h) K H Dh) as [I _]. destruct (I eq_refl) as [R [k Kk]].
  destruct z as [a b]. destruct h as [c d]. destruct E as [E1 E2]. unfold qi_real in *. cbn [fst snd qi_add] in *.
  cbn [v_odd]. unfold qi_real. cbn [fst snd]. split; [lra|]. exists (k - 1)%Z.
  assert (EQ : inject_Z (2 * (k - 1) + 1) == 2 * inject_Z k - 1).
  { unfold Qeq, Qminus, Qplus, Qmult, Qopp, inject_Z. cbn [Qnum Qden]. rewrite !Pos.mul_1_l. lia. }
  rewrite EQ, <- Kk. change (inject_Z 1) with 1 in E1. lra.
Qed.
