(* C35 -- the Pow-of-Pow rule of RefineVisitor: (b^k)^n -> abs(b)^(k n) for real b (taken only for an
   even integer k since the repair ef8465f) and (b^k)^n -> b^(k n) for positive b are value
   preserving when k is an even integer and n a half-integer.  Real arithmetic in Q. *)
From SE Require Import Assume.AssumeSem Num.NumQi Assume.RefineModel
  Assume.AssumeProofs Assume.AssumeProofs2 Assume.C34Theorems Assume.RefineProofs.
From Coq Require Import QArith Qabs Qpower List ZArith Lia Lqa.
Import ListNotations.
Local Open Scope Q_scope.

(* powers of a real number, in Q *)
Lemma pow_nat_real : forall a b n, b == 0 -> qi_eq (qi_pow_nat (a, b) n) (a ^ Z.of_nat n, 0).
Proof.
  intros a b n B. induction n as [|n IH].
  - cbn. split; reflexivity.
  - cbn [qi_pow_nat]. rewrite IH.
    assert (E : a ^ Z.of_nat (S n) == a ^ Z.of_nat n * a).
    { rewrite Nat2Z.inj_succ. unfold Z.succ. rewrite (Qpower_plus' a (Z.of_nat n) 1) by lia.
      rewrite Qpower_1_r. reflexivity. }
    unfold qi_mul, qi_eq. cbn [fst snd]. split; [rewrite E, B; ring | rewrite B; ring].
Qed.

Lemma inv_real : forall c, qi_eq (qi_inv (c, 0)) (/ c, 0).
Proof.
  intro c. unfold qi_inv, qi_div, qi_one, qi_norm2, qi_eq. cbn [fst snd]. split.
  - destruct (Qeq_dec c 0) as [Z|NZ].
    + rewrite Z. reflexivity.
    + field. exact NZ.
  - unfold Qdiv. ring.
Qed.

Lemma powz_real : forall a b k, b == 0 -> qi_eq (qi_powz (a, b) k) (a ^ k, 0).
Proof.
  intros a b k B. destruct k as [|p|p]; cbn [qi_powz].
  - split; reflexivity.
  - rewrite (pow_nat_real a b (Pos.to_nat p) B). rewrite positive_nat_Z. reflexivity.
  - rewrite (pow_nat_real a b (Pos.to_nat p) B). rewrite positive_nat_Z. rewrite inv_real.
    split; cbn [fst snd]; [|reflexivity]. change (Z.neg p) with (- Z.pos p)%Z. rewrite Qpower_opp. reflexivity.
Qed.

Lemma qi_powz_proper : forall x y k, qi_eq x y -> qi_eq (qi_powz x k) (qi_powz y k).
Proof.
  intros x y k E. destruct k as [|p|p]; cbn [qi_powz].
  - reflexivity.
  - now rewrite E.
  - now rewrite E.
Qed.

Lemma sqrt_unique : forall s t, 0 <= s -> 0 <= t -> s * s == t * t -> s == t.
Proof. intros s t S T E. nra. Qed.

(* the value of (b^(2j))^(m/2) for a real b, as a power of c >= 0 with c^2 = b^2 *)
Theorem pow_even_value : forall b1 b2 c j n m f,
  b2 == 0 -> 0 <= c -> c * c == b1 * b1 ->
  q_as_int n = None -> q_as_int (2 * n) = Some m ->
  qi_pow (qi_powz (b1, b2) (2 * j)) (n, 0) = PFin f ->
  qi_eq f (qi_powz (c, 0) (j * m)).
Proof.
  intros b1 b2 c j n m f B C CC N1 N2 H.
  pose proof (powz_real b1 b2 (2 * j) B) as R. set (r := qi_powz (b1, b2) (2 * j)) in *.
  destruct R as [R1 R2]. cbn [fst snd] in R1, R2.
  (* b1^(2j) = (c^j)^2 *)
  assert (SQ : b1 ^ (2 * j) == (c ^ j) * (c ^ j)).
  { rewrite Qpower_mult. assert (E2 : b1 ^ 2 == c ^ 2) by (cbn; rewrite CC; reflexivity).
    rewrite E2. rewrite <- Qpower_mult. rewrite Z.mul_comm, Qpower_mult. cbn. reflexivity. }
  assert (CJ : 0 <= c ^ j) by (now apply Qpower_0_le).
  unfold qi_pow in H. cbn [fst snd] in H.
  change (qi_is_realb (n, 0)) with true in H. cbn iota in H. rewrite N1, N2 in H.
  unfold psqrt in H.
  assert (RB : qi_is_realb r = true) by (apply qi_is_realb_iff; exact R2). rewrite RB in H.
  destruct (qsqrt (Qabs (fst r))) as [s|] eqn:QS; [|discriminate H].
  destruct (qsqrt_sound _ _ QS) as [SS SP].
  assert (RP : 0 <= fst r) by (rewrite R1, SQ; nra).
  assert (LB : Qle_bool 0 (fst r) = true) by (apply Qle_bool_iff; exact RP). rewrite LB in H.
  destruct ((m <? 0)%Z && qi_is_zerob r); [discriminate H|]. injection H as <-.
  assert (SE : s == c ^ j).
  { apply sqrt_unique; auto. rewrite SS, (Qabs_pos _ RP), R1, SQ. reflexivity. }
  rewrite (powz_real s 0 m (Qeq_refl 0)). rewrite (powz_real c 0 (j * m) (Qeq_refl 0)).
  split; cbn [fst snd]; [|reflexivity]. rewrite SE. rewrite <- Qpower_mult. reflexivity.
Qed.

Section PowRule.
  Variables (rho : valuation) (A : option assum).
  Hypothesis HO : oassum_ok rho A.

  (* what the two rewriting decisions say about the queries on the inner base *)
  Lemma refine_pow_real : forall ib ie xn d, refine_pow A (EPow ib ie) (ENum xn) = d -> d = DPos \/ d = DAbs ->
    is_real A ib = QT TT.
  Proof using.
    intros ib ie xn d H Hd. cbn [refine_pow] in H. destruct (qb_true _ _ d H) as (t & ER & K); try (destruct Hd; congruence).
    destruct t; cbn [t_true] in K; [destruct Hd; congruence .. | exact ER].
  Qed.
  Lemma refine_pow_positive : forall ib m xn, refine_pow A (EPow ib (ENum m)) (ENum xn) = DPos ->
    is_positive A ib = QT TT.
  Proof using.
    intros ib m xn H. cbn [refine_pow] in H. destruct (qb_true _ _ _ H) as (t & _ & K); try discriminate.
    destruct (t_true t); [|discriminate K].
    destruct (_ && _); [|discriminate K]. apply (qb_branch _ DPos _) in K; try discriminate; auto.
    destruct m as [z| | | | | |]; try discriminate. destruct (Z.even z); discriminate.
  Qed.

  (* the abs branch is only taken for an even integer inner exponent *)
  Lemma refine_pow_abs_shape : forall nb ne, refine_pow A nb ne = DAbs ->
    exists ib j xn, nb = EPow ib (ENum (NInt (2 * j))) /\ ne = ENum xn.
  Proof using.
    intros nb ne H. unfold refine_pow in H.
    destruct nb as [ | | | | | |ib ie| | | | | | | | | | | ]; try discriminate H.
    destruct ne as [xn| | | | | | | | | | | | | | | | | ]; try discriminate H.
    destruct (is_real A ib) as [t| | |]; cbn [qb] in H; try discriminate H.
    destruct (t_true t); [|discriminate H].
    destruct ie as [m| | | | | | | | | | | | | | | | | ]; try discriminate H.
    destruct (negb (n_is_complex m) && negb (n_is_complex xn)); [|discriminate H].
    destruct (is_positive A ib) as [u| | |]; cbn [qb] in H; try discriminate H.
    destruct (t_true u); [discriminate H|].
    destruct m as [z| | | | | |]; try discriminate H.
    destruct (Z.even z) eqn:EV; [|discriminate H].
    apply Z.even_spec in EV. destruct EV as [j ->]. eauto.
  Qed.

  (* decision DPos: the base is known positive *)
  Theorem pow_rule_pos_even : forall ib xn j n m bz f,
    refine_pow A (EPow ib (ENum (NInt (2 * j)))) (ENum xn) = DPos ->
    keys_ok ib = true -> pos_guard ib = true ->
    vfin (denote rho ib) = Some bz -> vfin (num_val xn) = Some (n, 0) ->
    q_as_int n = None -> q_as_int (2 * n) = Some m ->
    qi_pow (qi_powz bz (2 * j)) (n, 0) = PFin f ->
    qi_eq f (qi_powz (fst bz, 0) (j * m)).
  Proof using HO.
    intros ib xn j n m bz f H K G V X N1 N2 P.
    pose proof (real_true rho A HO ib bz (refine_pow_real _ _ _ _ H (or_introl eq_refl)) K V) as RR.
    destruct (positive_true rho A HO ib bz (refine_pow_positive _ _ _ H) G V) as [_ PB].
    destruct bz as [b1 b2]. unfold qi_real in RR. cbn [fst snd] in *.
    apply (pow_even_value b1 b2 b1 j n m f); auto; first [lra | reflexivity].
  Qed.

  (* decision DAbs: the base is real *)
  Theorem pow_rule_abs_even : forall ib xn j n m bz f,
    refine_pow A (EPow ib (ENum (NInt (2 * j)))) (ENum xn) = DAbs ->
    keys_ok ib = true ->
    vfin (denote rho ib) = Some bz -> vfin (num_val xn) = Some (n, 0) ->
    q_as_int n = None -> q_as_int (2 * n) = Some m ->
    qi_pow (qi_powz bz (2 * j)) (n, 0) = PFin f ->
    qi_eq f (qi_powz (Qabs (fst bz), 0) (j * m)).
  Proof using HO.
    intros ib xn j n m bz f H K V X N1 N2 P.
    pose proof (real_true rho A HO ib bz (refine_pow_real _ _ _ _ H (or_intror eq_refl)) K V) as RR.
    destruct bz as [b1 b2]. unfold qi_real in RR. cbn [fst snd] in *.
    apply (pow_even_value b1 b2 (Qabs b1) j n m f); auto.
    - apply Qabs_nonneg.
    - destruct (Qlt_le_dec b1 0) as [L|L].
      + rewrite (Qabs_neg b1) by lra. ring.
      + rewrite (Qabs_pos b1 L). reflexivity.
  Qed.

  (* every firing of the abs branch preserves the value (outer exponent a half-integer) *)
  Theorem pow_rule_abs_sound : forall nb ne, refine_pow A nb ne = DAbs ->
    exists ib j xn, nb = EPow ib (ENum (NInt (2 * j))) /\ ne = ENum xn /\
      forall n m bz f, keys_ok ib = true ->
        vfin (denote rho ib) = Some bz -> vfin (num_val xn) = Some (n, 0) ->
        q_as_int n = None -> q_as_int (2 * n) = Some m ->
        qi_pow (qi_powz bz (2 * j)) (n, 0) = PFin f ->
        qi_eq f (qi_powz (Qabs (fst bz), 0) (j * m)).
  Proof using HO.
    intros nb ne H. destruct (refine_pow_abs_shape nb ne H) as (ib & j & xn & -> & ->).
    exists ib, j, xn. split; [reflexivity|]. split; [reflexivity|]. intros n0 m0 bz f K V X N1 N2 P.
    now apply (pow_rule_abs_even ib xn j n0 m0 bz f H).
  Qed.
End PowRule.
