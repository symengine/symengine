(* C34 -- from the STATEMENTS of an assumption set (as the library receives them) to the facts the queries rely on:
   with [assum_of_ok] the soundness theorems of AssumeProofs*.v speak of every valuation satisfying the statements
   (C34/P_*.v); refutations of the unsound rules by concrete witnesses (vm_compute). *)
From SE Require Import Assume.AssumeSem Assume.AssumeProofs.
From Coq Require Import QArith List ZArith Lia.
Import ListNotations.
Local Open Scope Q_scope.

(* the optional Assumptions object of a query: None = nullptr *)
Definition assum_of (st : option (list expr)) : res (option assum) :=
  match st with
  | None => Ok None
  | Some l => match mk_assum l with Ok a => Ok (Some a) | ErrExn c => ErrExn c | ErrFuel => ErrFuel | ErrOOB i n => ErrOOB i n end
  end.
Definition osat (rho : valuation) (st : option (list expr)) : Prop :=
  match st with None => True | Some l => sat rho l end.

Lemma assum_of_ok : forall rho st A, assum_of st = Ok A -> osat rho st -> oassum_ok rho A.
Proof.
  intros rho [l|] A H S; cbn in H.
  - destruct (mk_assum l) as [a| | |] eqn:E; try discriminate H. injection H as <-. cbn. now apply (mk_assum_sound rho l).
  - injection H as <-. exact I.
Qed.

(* for the witnesses below and those of C35: the symbol x (a name is the list of its bytes), the valuation
   that is z everywhere, statement sets with one statement about x *)
Definition sx : expr := ESym [120%N].
Definition rho_const (z : qi) : valuation := fun _ => z.
Definition st_real_x : option (list expr) := Some [ELex TC_Contains sx (EAtom TC_Reals)].
Definition st_complex_x : option (list expr) := Some [ELex TC_Contains sx (EAtom TC_Complexes)].
Definition st_pos_x : option (list expr) := Some [EF2 TC_StrictLessThan (ENum (NInt 0)) sx].

Lemma sat_real_x : forall q, osat (rho_const (q, 0)) st_real_x.
Proof. intro q. constructor; [|constructor]. cbn. reflexivity. Qed.
Lemma sat_complex_x : forall z, osat (rho_const z) st_complex_x.
Proof. intro z. constructor; [|constructor]. cbn. exact I. Qed.
Lemma sat_pos_x : osat (rho_const (1, 0)) st_pos_x.
Proof. constructor; [|constructor]. cbn. split; [reflexivity|]. unfold Qlt. cbn. lia. Qed.

(* regression examples for the repaired rules (fix commits 089e9a7, 7182169, 8ffd80b): the former
   counterexamples now get a sound answer *)
Definition e_pos_cplx : expr := EAdd (NCplx 1 1 1 1) [(sx, NInt 1)].
Definition e_add_two_nonreal : expr := EAdd (NCplx 1 1 1 1) [(sx, NCplx 0 1 1 1)].
Example repaired_rules :
  is_nonnegative None (ENum NNaN) = QT TF /\ is_nonpositive None (ENum NNaN) = QT TF /\
  is_nonnegative None (ENum (NInf 0)) = QT TF /\ is_nonpositive None (ENum (NInf 0)) = QT TF /\
  (exists A, assum_of st_pos_x = Ok A /\ is_positive A e_pos_cplx = QT TI) /\
  (exists A, assum_of st_real_x = Ok A /\ is_real A e_add_two_nonreal = QT TI).
Proof. repeat split; try (eexists; split; vm_compute; reflexivity); vm_compute; reflexivity. Qed.

(* RealVisitor(Mul): I*x with x real is "not real"; at x = 0 the value is 0 *)
Definition e_ix : expr := EMul (NCplx 0 1 1 1) [(sx, ENum (NInt 1))].
Theorem real_false_refuted_mul : exists st A rho e v,
  assum_of st = Ok A /\ osat rho st /\ is_real A e = QT TF /\ denote rho e = Some v /\ v_real v.
Proof.
  eexists st_real_x, _, (rho_const (0, 0)), e_ix, _. split; [vm_compute; reflexivity|].
  split; [exact (sat_real_x 0)|]. split; [vm_compute; reflexivity|]. split; [cbn; reflexivity|].
  cbn [v_real]. unfold qi_real, Qeq. vm_compute. reflexivity.
Qed.

(* poles: 1/x is "real" and "complex" for real x; at x = 0 the value is zoo *)
Definition e_inv_x : expr := EPow sx (ENum (NInt (-1))).
Theorem real_true_refuted_pole : exists st A rho e,
  assum_of st = Ok A /\ osat rho st /\ is_real A e = QT TT /\ is_complex A e = QT TT /\
  denote rho e = Some VZoo /\ ~ v_real VZoo /\ ~ v_complex VZoo.
Proof.
  eexists st_real_x, _, (rho_const (0, 0)), e_inv_x. split; [vm_compute; reflexivity|].
  split; [exact (sat_real_x 0)|]. split; [vm_compute; reflexivity|]. split; [vm_compute; reflexivity|].
  split; [vm_compute; reflexivity|]. split; intro H; exact H.
Qed.

(* 2*x - y + 3 with x > 0, y < 0 is positive; the hypotheses of the theorem hold at x = 1/2, y = -3 *)
Definition sy : expr := ESym [121%N].
Definition st_xy : option (list expr) :=
  Some [EF2 TC_StrictLessThan (ENum (NInt 0)) sx; EF2 TC_StrictLessThan sy (ENum (NInt 0))].
Definition e_lin : expr := EAdd (NInt 3) [(sx, NInt 2); (sy, NInt (-1))].
Definition rho_xy : valuation := fun nm => match nm with [120%N] => (1 # 2, 0) | _ => (-3 # 1, 0) end.
