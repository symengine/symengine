(* C34 -- soundness of the queries of test_visitors.cpp under assumptions, against the value
   semantics of Assume/AssumeSem.v.  Part 1: the Assumptions constructor, ZeroVisitor,
   NegativeVisitor, NonNegativeVisitor, NonPositiveVisitor, PositiveVisitor. *)
From SE Require Import Assume.AssumeSem Num.NumQi.
From Coq Require Import QArith Qabs List ZArith Lia Lqa.
Import ListNotations.
Local Open Scope Q_scope.

(* what an answer [t] to the question [P] promises: nothing when it is indeterminate *)
Definition answers (t : tribool) (P : Prop) : Prop := (t = TT -> P) /\ (t = TF -> ~ P).

Lemma answers_TI : forall P, answers TI P.
Proof. split; discriminate. Qed.
Lemma answers_TT : forall P : Prop, P -> answers TT P.
Proof. split; [trivial | discriminate]. Qed.
Lemma answers_TF : forall P : Prop, ~ P -> answers TF P.
Proof. split; [discriminate | trivial]. Qed.
Lemma answers_bool : forall (b : bool) (P : Prop), (if b then P else ~ P) -> answers (tri_of_bool b) P.
Proof. intros [] P H; [now apply answers_TT | now apply answers_TF]. Qed.
Lemma answers_iff : forall t (P Q : Prop), (P <-> Q) -> answers t P -> answers t Q.
Proof. intros t P Q E [H1 H2]. split; intro K; [apply E, H1, K | intro X; apply (H2 K), E, X]. Qed.

Lemma andwk_TT : forall a b, andwk_tribool a b = TT -> a = TT /\ b = TT.
Proof. intros [] [] H; try discriminate H. split; reflexivity. Qed.

Lemma qbind_QT : forall r k t, qbind r k = QT t -> exists u, r = QT u /\ k u = QT t.
Proof. intros [u| | |] k t H; try discriminate H. eauto. Qed.
Lemma bind_Ok : forall (X Y : Type) (r : res X) (k : X -> res Y) y, bind r k = Ok y -> exists x, r = Ok x /\ k x = Ok y.
Proof. intros X Y [x| | |] k y H; try discriminate H. eauto. Qed.

Lemma vfin_some : forall o z, vfin o = Some z -> o = Some (VC z).
Proof. intros [[w| | | |]|] z H; try discriminate H. injection H as ->. reflexivity. Qed.

Lemma name_eqb_eq : forall a b, name_eqb a b = true <-> a = b.
Proof.
  induction a as [|x a IH]; destruct b as [|y b]; cbn [name_eqb]; split; intro H; try discriminate; try reflexivity.
  - apply andb_prop in H. destruct H as [H1 H2]. apply N.eqb_eq in H1. apply IH in H2. now subst.
  - injection H as -> ->. rewrite N.eqb_refl. cbn. now apply IH.
Qed.
Lemma name_eqb_refl : forall a, name_eqb a a = true.
Proof. intro a. now apply name_eqb_eq. Qed.

Lemma q_is_zero_iff : forall x, q_is_zero x = true <-> x == 0.
Proof. intro x. unfold q_is_zero. apply Qeq_bool_iff. Qed.
Lemma qi_is_realb_iff : forall z, qi_is_realb z = true <-> qi_real z.
Proof. intro z. unfold qi_is_realb, qi_real. apply q_is_zero_iff. Qed.
Lemma qi_is_zerob_iff : forall z, qi_is_zerob z = true <-> qi_eq z qi_zero.
Proof.
  intro z. unfold qi_is_zerob, qi_eq, qi_zero. cbn [fst snd]. rewrite andb_true_iff, !q_is_zero_iff. tauto.
Qed.

Lemma Qmake_pos : forall p d, if (0 <? p)%Z then 0 < p # d else p # d <= 0.
Proof. intros p d. destruct (Z.ltb_spec 0 p); [unfold Qlt | unfold Qle]; cbn; lia. Qed.
Lemma Qmake_neg : forall p d, if (p <? 0)%Z then p # d < 0 else 0 <= p # d.
Proof. intros p d. destruct (Z.ltb_spec p 0); [unfold Qlt | unfold Qle]; cbn; lia. Qed.
Lemma Qmake_zero : forall p d, if (p =? 0)%Z then p # d == 0 else ~ p # d == 0.
Proof. intros p d. destruct (Z.eqb_spec p 0); unfold Qeq; cbn; lia. Qed.

(* an exact real literal is a fraction p/d, and the Number classes read its sign off p *)
Lemma num_q_cases : forall n q, num_q n = Some q ->
  exists p d, (q = Qmake p d) /\ (num_val n = Some (VC (q, 0))) /\
    (n_is_positive n = Z.ltb 0 p) /\ (n_is_negative n = Z.ltb p 0) /\ (n_is_zero n = Z.eqb p 0).
Proof.
  intros [z|p d| | | | |] q H; try discriminate H; cbn in H.
  - injection H as <-. exists z, 1%positive. repeat split; reflexivity.
  - destruct (rat_canon p d) eqn:E; [|discriminate H]. injection H as <-. exists p, d. cbn. rewrite E. repeat split; reflexivity.
Qed.
Lemma num_q_val : forall n q, num_q n = Some q -> num_val n = Some (VC (q, 0)).
Proof. intros n q H. destruct (num_q_cases n q H) as (p & d & _ & V & _). exact V. Qed.
Lemma num_q_positive : forall n q, num_q n = Some q -> if n_is_positive n then 0 < q else q <= 0.
Proof. intros n q H. destruct (num_q_cases n q H) as (p & d & -> & _ & -> & _). apply Qmake_pos. Qed.
Lemma num_q_negative : forall n q, num_q n = Some q -> if n_is_negative n then q < 0 else 0 <= q.
Proof. intros n q H. destruct (num_q_cases n q H) as (p & d & -> & _ & _ & -> & _). apply Qmake_neg. Qed.
Lemma num_q_zero : forall n q, num_q n = Some q -> if n_is_zero n then q == 0 else ~ q == 0.
Proof. intros n q H. destruct (num_q_cases n q H) as (p & d & -> & _ & _ & _ & ->). apply Qmake_zero. Qed.
Lemma num_q_real : forall n q, num_q n = Some q ->
  n_is_a_Complex n = false /\ n_is_complex n = false /\ n_is_nan n = false /\ n_is_inf n = false.
Proof. intros [| | | | | |] q H; try discriminate H; repeat split. Qed.

(* the literals that have a value, with their values: the case analysis of every bvisit(const Number &) *)
Inductive num_kind : number -> val -> Prop :=
| NK_real n q : num_q n = Some q -> num_kind n (VC (q, 0))
| NK_cplx rn rd imn imd : ~ imn # imd == 0 -> num_kind (NCplx rn rd imn imd) (VC (rn # rd, imn # imd))
| NK_pinf p : num_kind (NInf (Zpos p)) VPInf
| NK_ninf p : num_kind (NInf (Zneg p)) VNInf
| NK_zoo : num_kind (NInf 0) VZoo
| NK_nan : num_kind NNaN VNaN.

Lemma num_val_kind : forall n v, num_val n = Some v -> num_kind n v.
Proof.
  intros [k|p d|rn rd imn imd| | |[|p|p]|] v H; cbn in H; try discriminate H.
  - injection H as <-. now apply NK_real.
  - destruct (rat_canon p d) eqn:E; [|discriminate H]. injection H as <-. apply NK_real. cbn. now rewrite E.
  - pose proof (Qmake_zero imn imd) as K. destruct (imn =? 0)%Z; [discriminate H|]. injection H as <-. now apply NK_cplx.
  - injection H as <-. constructor.
  - injection H as <-. constructor.
  - injection H as <-. constructor.
  - injection H as <-. constructor.
Qed.

(* a finite literal is an exact real one or a canonical Complex *)
Lemma num_fin_cases : forall n z, vfin (num_val n) = Some z ->
  (exists q, num_q n = Some q /\ z = (q, 0)) \/
  (exists rn rd imn imd, n = NCplx rn rd imn imd /\ ~ imn # imd == 0 /\ z = (Qmake rn rd, Qmake imn imd)).
Proof. intros n z H. apply vfin_some, num_val_kind in H. inversion H; subst; eauto 10. Qed.

Lemma num_zero_sound : forall n v, num_val n = Some v -> answers (tri_of_bool (n_is_zero n)) (v_zero v).
Proof.
  intros n v D. destruct (num_val_kind n v D) as [n q Hq|rn rd imn imd NZ|p|p| |]; [ | |apply answers_TF; intros [] ..].
  - apply answers_bool. pose proof (num_q_zero n q Hq) as Z.
    destruct (n_is_zero n); [split; [exact Z | reflexivity] | intros [K _]; exact (Z K)].
  - apply answers_TF. intros [_ K]. exact (NZ K).
Qed.
Lemma num_qi_zero : forall n z, num_qi n = Some z -> if n_is_zero n then qi_eq z qi_zero else ~ qi_eq z qi_zero.
Proof.
  intros n z H. destruct (num_zero_sound n _ (vfin_some _ _ H)) as [K1 K2].
  destruct (n_is_zero n); [apply K1 | apply K2]; reflexivity.
Qed.

Lemma from_map_cons : forall m x v y,
  from_map ((x, v) :: m) y = if name_eqb x y then tri_of_bool v else from_map m y.
Proof. reflexivity. Qed.

(* what one entry of an update records about the symbol [x]: [P], its negation, or nothing *)
Definition fact (P : val -> Prop) (rho : valuation) (x : list N) (v : option bool) : Prop :=
  match v with
  | Some true => P (VC (rho x))
  | Some false => ~ P (VC (rho x))
  | None => True
  end.

Lemma set_opt_ok : forall rho m x v m' P,
  set_opt m x v = Ok m' -> map_ok rho m P -> fact P rho x v -> map_ok rho m' P.
Proof.
  intros rho m x v m' P H M F. destruct v as [b|]; cbn [set_opt] in H.
  - unfold set_map in H. destruct (_ || _); [discriminate H|]. injection H as <-.
    intro y. rewrite from_map_cons. destruct (name_eqb x y) eqn:E.
    + apply name_eqb_eq in E. subst y. destruct b; cbn [tri_of_bool fact] in *; split; intro H; try discriminate H; assumption.
    + apply M.
  - injection H as <-. exact M.
Qed.

Record upd_holds (rho : valuation) (x : list N) (u : upd) : Prop := mkUpdHolds {
  uh_nonneg : fact v_nonnegative rho x (u_nonneg u);
  uh_pos : fact v_positive rho x (u_pos u);
  uh_neg : fact v_negative rho x (u_neg u);
  uh_nonpos : fact v_nonpositive rho x (u_nonpos u);
  uh_nonzero : fact (fun v => ~ v_zero v) rho x (u_nonzero u);
  uh_zero : fact v_zero rho x (u_zero u) }.

Lemma apply_upd_ok : forall rho A x u A',
  apply_upd A x u = Ok A' -> assum_ok rho A -> upd_holds rho x u -> assum_ok rho A'.
Proof.
  intros rho A x u A' H [o1 o2 o3 o4 o5 o6 o7 o8 o9 o10] [h1 h2 h3 h4 h5 h6].
  unfold apply_upd in H.
  apply bind_Ok in H as (m1 & E1 & H). apply bind_Ok in H as (m2 & E2 & H). apply bind_Ok in H as (m3 & E3 & H).
  apply bind_Ok in H as (m4 & E4 & H). apply bind_Ok in H as (m5 & E5 & H). apply bind_Ok in H as (m6 & E6 & H).
  injection H as <-. constructor; cbn; try assumption; eapply set_opt_ok; eassumption.
Qed.

Lemma set_ok_cons : forall rho l x P (b : bool),
  set_ok rho l P -> (b = true -> P (VC (rho x))) -> set_ok rho (if b then x :: l else l) P.
Proof.
  intros rho l x P b S H. destruct b; [|exact S].
  intros y M. cbn [mem_name] in M. apply orb_prop in M. destruct M as [M|M].
  - apply name_eqb_eq in M. subst y. now apply H.
  - now apply S.
Qed.

Lemma add_sets_ok : forall rho A x cx re ra it,
  assum_ok rho A ->
  (re = true -> v_real (VC (rho x))) -> (ra = true -> v_rational (VC (rho x))) ->
  (it = true -> v_integer (VC (rho x))) ->
  assum_ok rho (add_sets A x cx re ra it).
Proof.
  intros rho A x cx re ra it [o1 o2 o3 o4 o5 o6 o7 o8 o9 o10] Hre Hra Hit.
  constructor; cbn; try assumption; apply set_ok_cons; try assumption. intros _. exact I.
Qed.
Lemma add_real_ok : forall rho A x, assum_ok rho A -> v_real (VC (rho x)) -> assum_ok rho (add_real A x).
Proof.
  intros rho A x O H. change (add_real A x) with (add_sets A x false true false false).
  apply add_sets_ok; auto; discriminate.
Qed.
Lemma add_complex_ok : forall rho A x, assum_ok rho A -> assum_ok rho (add_complex A x).
Proof.
  intros rho A x O. change (add_complex A x) with (add_sets A x true false false false).
  apply add_sets_ok; auto; discriminate.
Qed.

(* the six facts of an update, from what is known of the symbol: propositional structure over linear arithmetic *)
Ltac upd_facts := constructor; cbn; unfold qi_eq, qi_zero, qi_real in *; cbn [fst snd] in *; intuition lra.

Lemma upd_positive : forall rho x, qi_real (rho x) -> 0 < fst (rho x) -> upd_holds rho x U_positive.
Proof. intros rho x R P. upd_facts. Qed.
Lemma upd_negative : forall rho x, qi_real (rho x) -> fst (rho x) < 0 -> upd_holds rho x U_negative.
Proof. intros rho x R P. upd_facts. Qed.
Lemma upd_nonnegative : forall rho x, qi_real (rho x) -> 0 <= fst (rho x) -> upd_holds rho x U_nonnegative.
Proof. intros rho x R P. upd_facts. Qed.
Lemma upd_nonpositive : forall rho x, qi_real (rho x) -> fst (rho x) <= 0 -> upd_holds rho x U_nonpositive.
Proof. intros rho x R P. upd_facts. Qed.
Lemma upd_zero : forall rho x, qi_eq (rho x) qi_zero -> upd_holds rho x U_zero.
Proof. intros rho x [H1 H2]. upd_facts. Qed.
Lemma upd_nonzero : forall rho x, ~ qi_eq (rho x) qi_zero -> upd_holds rho x U_nonzero.
Proof. intros rho x H. upd_facts. Qed.

(* one statement: a bound on a symbol makes it real and, by the sign of the bound, fixes its sign *)
Section Statements.
  Variables (rho : valuation) (A A' : assum) (nm : list N) (n : number).
  Hypothesis O : assum_ok rho A.

  Lemma keep_ok : Ok A = Ok A' -> assum_ok rho A'.
  Proof using O. intro H. injection H as <-. exact O. Qed.

  Lemma sign_upd_ok : forall u, qi_real (rho nm) -> upd_holds rho nm u ->
    apply_upd (add_real A nm) nm u = Ok A' -> assum_ok rho A'.
  Proof using O. intros u R U H. exact (apply_upd_ok rho _ nm u A' H (add_real_ok rho A nm O R) U). Qed.
  Lemma real_ok : qi_real (rho nm) -> Ok (add_real A nm) = Ok A' -> assum_ok rho A'.
  Proof using O. intros R H. injection H as <-. now apply add_real_ok. Qed.

  (* n <= x *)
  Lemma lower_le_ok :
    match num_q n with Some q => qi_real (rho nm) /\ q <= fst (rho nm) | None => False end ->
    (if n_is_positive n then apply_upd (add_real A nm) nm U_positive
     else if n_is_zero n then apply_upd (add_real A nm) nm U_nonnegative else Ok (add_real A nm)) = Ok A' ->
    assum_ok rho A'.
  Proof using O.
    destruct (num_q n) as [q|] eqn:Eq; [|contradiction]. intros [R L].
    pose proof (num_q_positive n q Eq) as P. pose proof (num_q_zero n q Eq) as Z.
    destruct (n_is_positive n); [|destruct (n_is_zero n)].
    - apply sign_upd_ok, upd_positive; [exact R | exact R | lra].
    - apply sign_upd_ok, upd_nonnegative; [exact R | exact R | lra].
    - now apply real_ok.
  Qed.
  (* x <= n *)
  Lemma upper_le_ok :
    match num_q n with Some q => qi_real (rho nm) /\ fst (rho nm) <= q | None => False end ->
    (if n_is_negative n then apply_upd (add_real A nm) nm U_negative
     else if n_is_zero n then apply_upd (add_real A nm) nm U_nonpositive else Ok (add_real A nm)) = Ok A' ->
    assum_ok rho A'.
  Proof using O.
    destruct (num_q n) as [q|] eqn:Eq; [|contradiction]. intros [R L].
    pose proof (num_q_negative n q Eq) as P. pose proof (num_q_zero n q Eq) as Z.
    destruct (n_is_negative n); [|destruct (n_is_zero n)].
    - apply sign_upd_ok, upd_negative; [exact R | exact R | lra].
    - apply sign_upd_ok, upd_nonpositive; [exact R | exact R | lra].
    - now apply real_ok.
  Qed.
  (* n < x *)
  Lemma lower_lt_ok :
    match num_q n with Some q => qi_real (rho nm) /\ q < fst (rho nm) | None => False end ->
    (if negb (n_is_negative n) then apply_upd (add_real A nm) nm U_positive else Ok (add_real A nm)) = Ok A' ->
    assum_ok rho A'.
  Proof using O.
    destruct (num_q n) as [q|] eqn:Eq; [|contradiction]. intros [R L].
    pose proof (num_q_negative n q Eq) as P. destruct (n_is_negative n); cbn [negb].
    - now apply real_ok.
    - apply sign_upd_ok, upd_positive; [exact R | exact R | lra].
  Qed.
  (* x < n *)
  Lemma upper_lt_ok :
    match num_q n with Some q => qi_real (rho nm) /\ fst (rho nm) < q | None => False end ->
    (if negb (n_is_positive n) then apply_upd (add_real A nm) nm U_negative else Ok (add_real A nm)) = Ok A' ->
    assum_ok rho A'.
  Proof using O.
    destruct (num_q n) as [q|] eqn:Eq; [|contradiction]. intros [R L].
    pose proof (num_q_positive n q Eq) as P. destruct (n_is_positive n); cbn [negb].
    - now apply real_ok.
    - apply sign_upd_ok, upd_negative; [exact R | exact R | lra].
  Qed.
  (* x == n *)
  Lemma equal_ok :
    match num_qi n with Some z => qi_eq (rho nm) z | None => False end ->
    (if n_is_zero n then bind (apply_upd (add_complex A nm) nm U_zero) (fun A2 => Ok (add_sets A2 nm false true true true))
     else apply_upd (add_complex A nm) nm U_nonzero) = Ok A' ->
    assum_ok rho A'.
  Proof using O.
    destruct (num_qi n) as [z|] eqn:Ez; [|contradiction]. intros S H.
    pose proof (num_qi_zero n z Ez) as Z. destruct (n_is_zero n).
    - assert (RZ : qi_eq (rho nm) qi_zero) by (now rewrite S).
      apply bind_Ok in H as (A2 & EA & H). injection H as <-.
      pose proof (apply_upd_ok rho _ nm _ A2 EA (add_complex_ok rho A nm O) (upd_zero rho nm RZ)) as O2.
      destruct RZ as [R1 R2]. cbn [qi_zero fst snd] in R1, R2.
      apply add_sets_ok; auto; intros _; cbn; unfold qi_real; try exact R2.
      split; [exact R2|]. exists 0%Z. exact R1.
    - apply (apply_upd_ok rho _ nm _ A' H (add_complex_ok rho A nm O)), upd_nonzero.
      intro RZ. apply Z. now rewrite <- S.
  Qed.
  (* x != n *)
  Lemma unequal_ok :
    match num_qi n with Some z => ~ qi_eq (rho nm) z | None => False end ->
    (if n_is_zero n then apply_upd A nm U_nonzero else Ok A) = Ok A' ->
    assum_ok rho A'.
  Proof using O.
    destruct (num_qi n) as [z|] eqn:Ez; [|contradiction]. intros S H.
    pose proof (num_qi_zero n z Ez) as Z. destruct (n_is_zero n); [|now apply keep_ok].
    apply (apply_upd_ok rho A nm _ A' H O), upd_nonzero. intro RZ. apply S. now rewrite RZ, Z.
  Qed.
End Statements.

Lemma add_stmt_ok : forall rho A s A',
  add_stmt A s = Ok A' -> assum_ok rho A -> stmt_holds rho s -> assum_ok rho A'.
Proof.
  intros rho A s A' H O S.
  destruct s as [n|nm|nm i|nm|c d|c d|b x|c a|c a1 a2|c l|nm l|c x st|a l|a d|l|b|s1 e1 lo ro|t];
    cbn [add_stmt] in H; try exact (keep_ok rho A A' O H).
  - (* relational *)
    cbn [stmt_holds] in S.
    (* in each of the cases of add_stmt's match the statement is a lower bound, an upper bound, or ignored *)
    destruct (c =? TC_LessThan)%N.
    { destruct (sym_name a2), (as_num a1), (sym_name a1), (as_num a2);
        first [ exact (lower_le_ok rho A A' _ _ O S H) | exact (upper_le_ok rho A A' _ _ O S H) | exact (keep_ok rho A A' O H) ]. }
    destruct (c =? TC_StrictLessThan)%N.
    { destruct (sym_name a2), (as_num a1), (sym_name a1), (as_num a2);
        first [ exact (lower_lt_ok rho A A' _ _ O S H) | exact (upper_lt_ok rho A A' _ _ O S H) | exact (keep_ok rho A A' O H) ]. }
    destruct (c =? TC_Equality)%N.
    { destruct (as_num a1), (sym_name a2); first [ exact (equal_ok rho A A' _ _ O S H) | exact (keep_ok rho A A' O H) ]. }
    destruct (c =? TC_Unequality)%N.
    { destruct (as_num a1), (sym_name a2); first [ exact (unequal_ok rho A A' _ _ O S H) | exact (keep_ok rho A A' O H) ]. }
    now apply (keep_ok rho A).
  - (* Contains *)
    destruct (c =? TC_Contains)%N eqn:EC; [|now apply (keep_ok rho A)].
    destruct x as [n|nm| | | | | | | | | | | | | | | | ]; cbn [sym_name] in H; try exact (keep_ok rho A A' O H).
    destruct st as [ | | | | | | | | | | | | | | | | |t]; try exact (keep_ok rho A A' O H).
    cbn [stmt_holds] in S. rewrite EC in S.
    destruct (t =? TC_Complexes)%N; [injection H as <-; apply add_sets_ok; auto; discriminate|].
    destruct (t =? TC_Reals)%N; [injection H as <-; apply add_sets_ok; auto; discriminate|].
    destruct (t =? TC_Rationals)%N; [injection H as <-; apply add_sets_ok; auto; discriminate|].
    destruct (t =? TC_Integers)%N; [injection H as <-; destruct S as [S1 S2]; apply add_sets_ok; auto; intros _; cbn; auto|].
    now apply (keep_ok rho A).
Qed.

Lemma assum_empty_ok : forall rho, assum_ok rho assum_empty.
Proof.
  intro rho. constructor; cbn; try (intros x H; discriminate H); intro x; split; intro H; discriminate H.
Qed.

Lemma mk_assum_from_ok : forall rho l A a,
  mk_assum_from A l = Ok a -> assum_ok rho A -> sat rho l -> assum_ok rho a.
Proof.
  induction l as [|s l IH]; intros A a H O S; cbn [mk_assum_from] in H.
  - injection H as <-. exact O.
  - apply bind_Ok in H as (A' & E & H). inversion S; subst. eapply IH; eauto. eapply add_stmt_ok; eauto.
Qed.

(* C34: the internal form of the assumptions only records facts that hold at every valuation
   satisfying the statements *)
Theorem mk_assum_sound : forall rho l a, mk_assum l = Ok a -> sat rho l -> assum_ok rho a.
Proof. intros rho l a H S. eapply mk_assum_from_ok; eauto. apply assum_empty_ok. Qed.

Lemma sym_map_sound : forall rho A (f : assum -> list (list N * bool)) (P : val -> Prop) e t v,
  oassum_ok rho A -> (forall a, assum_ok rho a -> map_ok rho (f a) P) ->
  sym_map A f e = QT t -> denote rho e = Some v -> answers t (P v).
Proof.
  intros rho A f P e t v O M H D. unfold sym_map in H.
  destruct A as [a|]; destruct e; try (injection H as <-; exact (answers_TI _)).
  cbn in D. injection D as <-. injection H as <-. apply (M a O).
Qed.
(* a set never answers false *)
Lemma sym_set_not_TF : forall A (f : assum -> list (list N)) e, sym_set A f e <> QT TF.
Proof.
  intros [a|] f e H; destruct e; try discriminate H. cbn in H. unfold tri_mem in H.
  destruct (mem_name _ _); discriminate H.
Qed.
Lemma sym_set_sound : forall rho A (f : assum -> list (list N)) (P : val -> Prop) e t v,
  oassum_ok rho A -> (forall a, assum_ok rho a -> set_ok rho (f a) P) ->
  sym_set A f e = QT t -> denote rho e = Some v -> (t = TT -> P v) /\ t <> TF.
Proof.
  intros rho A f P e t v O M H D. split; [|intros ->; exact (sym_set_not_TF A f e H)]. intros ->.
  unfold sym_set in H. destruct A as [a|]; destruct e; try discriminate H.
  cbn in D. injection D as <-. injection H as H. unfold tri_mem in H.
  destruct (mem_name name (f a)) eqn:E; [|discriminate H]. now apply (M a O).
Qed.

Lemma qsqrt_sound : forall q s, qsqrt q = Some s -> s * s == q /\ 0 <= s.
Proof.
  intros q s H. unfold qsqrt in H.
  destruct (0 <=? Qnum (Qred q))%Z eqn:E0; [|discriminate H].
  destruct (_ && _) eqn:E1; [|discriminate H]. injection H as <-.
  apply andb_prop in E1. destruct E1 as [E1 E2]. apply Z.eqb_eq in E1, E2. apply Z.leb_le in E0.
  set (n := Qnum (Qred q)) in *. set (d := Qden (Qred q)) in *.
  assert (SD : (0 < Z.sqrt (Zpos d))%Z).
  { pose proof (Z.sqrt_nonneg (Zpos d)). destruct (Z.eq_dec (Z.sqrt (Zpos d)) 0) as [Z0|]; [|lia]. rewrite Z0 in E2. discriminate E2. }
  split.
  - rewrite <- (Qred_correct q). unfold Qeq, Qmult. cbn [Qnum Qden]. fold n d.
    cbn in E2 |- *. rewrite E1. rewrite E2. reflexivity.
  - unfold Qle. cbn [Qnum Qden]. pose proof (Z.sqrt_nonneg n). lia.
Qed.

Lemma Qsq_zero : forall r, r * r == 0 -> r == 0.
Proof. intros r H. nra. Qed.

(* the modulus of a non-real number, when it has an exact one, is not zero *)
Lemma norm_sqrt_nonzero : forall a b r, ~ b == 0 -> qsqrt (qi_norm2 (a, b)) = Some r -> ~ r == 0.
Proof.
  intros a b r NR Q E. destruct (qsqrt_sound _ _ Q) as [SQ _]. unfold qi_norm2 in SQ. cbn [fst snd] in SQ.
  apply NR. rewrite E in SQ. nra.
Qed.

Lemma qi_abs_zero_iff : forall z w, qi_abs z = Some w -> (qi_eq w qi_zero <-> qi_eq z qi_zero).
Proof.
  intros [a b] w H. unfold qi_abs in H. cbn [fst snd] in H. unfold qi_eq, qi_zero.
  destruct (qi_is_realb (a, b)) eqn:R.
  - injection H as <-. apply qi_is_realb_iff in R. unfold qi_real in R. cbn [fst snd] in *.
    assert (K : Qabs a == 0 <-> a == 0).
    { split; intro E; [|now rewrite E]. destruct (Qlt_le_dec a 0) as [L|L].
      - rewrite (Qabs_neg a) in E by lra. lra.
      - now rewrite (Qabs_pos a L) in E. }
    pose proof (Qeq_refl 0). tauto.
  - destruct (qsqrt (qi_norm2 (a, b))) as [r|] eqn:Q; [|discriminate H]. injection H as <-. cbn [fst snd].
    assert (NR : ~ b == 0) by (intro B; apply (qi_is_realb_iff (a, b)) in B; congruence).
    pose proof (norm_sqrt_nonzero a b r NR Q). tauto.
Qed.

Lemma Zsgn_zero_iff : forall a : Q, inject_Z (Z.sgn (Qnum a)) == 0 <-> a == 0.
Proof. intros [[|p|p] d]; unfold Qeq; cbn; lia. Qed.

Lemma qi_sign_zero_iff : forall z w, qi_sign z = Some w -> (qi_eq w qi_zero <-> qi_eq z qi_zero).
Proof.
  intros [a b] w H. unfold qi_sign in H. cbn [fst snd] in H. unfold qi_eq, qi_zero.
  destruct (qi_is_realb (a, b)) eqn:R.
  - injection H as <-. apply qi_is_realb_iff in R. unfold qi_real in R. cbn [fst snd] in *.
    pose proof (Zsgn_zero_iff a). pose proof (Qeq_refl 0). unfold q_sgn. tauto.
  - destruct (qsqrt (qi_norm2 (a, b))) as [r|] eqn:Q; [|discriminate H]. injection H as <-.
    assert (NR : ~ b == 0) by (intro B; apply (qi_is_realb_iff (a, b)) in B; congruence).
    pose proof (norm_sqrt_nonzero a b r NR Q) as RN.
    unfold qi_div, qi_norm2. cbn [fst snd]. split; intros [H1 H2]; [|contradiction].
    (* the imaginary part of z/r is b/r *)
    exfalso. apply NR.
    assert (E2 : b * r - a * 0 == ((b * r - a * 0) / (r * r + 0 * 0)) * (r * r + 0 * 0)) by (field; nra).
    rewrite H2, Qmult_0_l in E2. nra.
Qed.

Lemma qi_conj_zero_iff : forall z, qi_eq (qi_conj z) qi_zero <-> qi_eq z qi_zero.
Proof. intros [a b]. unfold qi_conj, qi_eq, qi_zero. cbn [fst snd]. split; intros [H1 H2]; split; lra. Qed.

Theorem zero_sound : forall rho A, oassum_ok rho A -> forall e t v,
  q_zero A e = QT t -> denote rho e = Some v -> (t = TT -> v_zero v) /\ (t = TF -> ~ v_zero v).
Proof.
  intros rho A O. induction e; intros t v H D; cbn [q_zero] in H;
    try (destruct (is_setbool _); [discriminate H | injection H as <-; exact (answers_TI _)]).
  - injection H as <-. now apply num_zero_sound.
  - exact (sym_map_sound rho A a_zero v_zero _ t v O (ok_zero rho) H D).
  - exact (sym_map_sound rho A a_zero v_zero _ t v O (ok_zero rho) H D).
  - discriminate D.
  - (* abs, sign and conjugate vanish exactly where their argument does *)
    cbn [denote] in D. destruct (vfin (denote rho e)) as [z|] eqn:V; [|discriminate D]. apply vfin_some in V.
    destruct ((code =? TC_Abs)%N || (code =? TC_Conjugate)%N || (code =? TC_Sign)%N) eqn:C.
    + refine (answers_iff t _ _ _ (IHe t (VC z) H V)). cbn [v_zero].
      destruct (code =? TC_Abs)%N.
      { destruct (qi_abs z) as [w|] eqn:QA; [|discriminate D]. injection D as <-. symmetry. exact (qi_abs_zero_iff z w QA). }
      destruct (code =? TC_Sign)%N.
      { destruct (qi_sign z) as [w|] eqn:QA; [|discriminate D]. injection D as <-. symmetry. exact (qi_sign_zero_iff z w QA). }
      cbn [orb] in C. rewrite orb_false_r in C. rewrite C in D. injection D as <-. symmetry. apply qi_conj_zero_iff.
    + destruct (code =? TC_PrimePi)%N; [discriminate H|]. destruct (code =? TC_Not)%N; [discriminate H|].
      injection H as <-. exact (answers_TI _).
Qed.

Theorem nonzero_sound : forall rho A, oassum_ok rho A -> forall e t v,
  is_nonzero A e = QT t -> denote rho e = Some v -> (t = TT -> ~ v_zero v) /\ (t = TF -> v_zero v).
Proof.
  intros rho A O e t v H D. apply qbind_QT in H as (u & E & H). injection H as <-.
  destruct (zero_sound rho A O e u v E D) as [Z1 Z2]. destruct u; split; intro X; try discriminate X; auto.
Qed.

(* the three visitors are one visitor up to the rule for numbers, the map consulted for a symbol and the answer
   on a constant: [is_negative A], [is_nonnegative A], [is_nonpositive A] are convertible to [leaf_query] at their
   three parameters, which is how the theorems below apply [leaf_query_sound] *)
Definition leaf_query (num : number -> tribool) (fld : assum -> list (list N * bool)) (cst : tribool)
    (A : option assum) (e : expr) : qr :=
  match e with
  | ENum n => QT (num n)
  | ESym _ | EDummy _ _ => sym_map A fld e
  | EConst _ => QT cst
  | _ => if is_setbool e then QExn else QT TI
  end.

Lemma leaf_query_sound : forall rho A num fld cst (P : val -> Prop), oassum_ok rho A ->
  (forall n v, num_val n = Some v -> answers (num n) (P v)) ->
  (forall a, assum_ok rho a -> map_ok rho (fld a) P) ->
  forall e t v, leaf_query num fld cst A e = QT t -> denote rho e = Some v -> answers t (P v).
Proof.
  intros rho A num fld cst P O HN HF e t v H D. destruct e; cbn [leaf_query] in H;
    try (destruct (is_setbool _); [discriminate H | injection H as <-; exact (answers_TI _)]).
  - injection H as <-. now apply HN.
  - exact (sym_map_sound rho A fld P _ t v O HF H D).
  - exact (sym_map_sound rho A fld P _ t v O HF H D).
  - discriminate D.
Qed.

(* the rules for numbers; an exact real literal answers by its sign, Complex, zoo and nan answer false *)
Lemma num_negative_sound : forall n v, num_val n = Some v ->
  answers (if n_is_a_Complex n then TF else tri_of_bool (n_is_negative n)) (v_negative v).
Proof.
  intros n v D. destruct (num_val_kind n v D) as [n q Hq|rn rd imn imd NZ|p|p| |];
    [ | | apply answers_TF; intros [] | now apply answers_TT | apply answers_TF; intros [] ..].
  - destruct (num_q_real n q Hq) as (-> & _). apply answers_bool. pose proof (num_q_negative n q Hq) as K.
    destruct (n_is_negative n); [split; [reflexivity | exact K] | intros [_ X]; cbn [fst] in X; lra].
  - apply answers_TF. intros [K _]. exact (NZ K).
Qed.
Lemma num_positive_sound : forall n v, num_val n = Some v ->
  answers (if n_is_a_Complex n then TF else tri_of_bool (n_is_positive n)) (v_positive v).
Proof.
  intros n v D. destruct (num_val_kind n v D) as [n q Hq|rn rd imn imd NZ|p|p| |];
    [ | | now apply answers_TT | apply answers_TF; intros [] ..].
  - destruct (num_q_real n q Hq) as (-> & _). apply answers_bool. pose proof (num_q_positive n q Hq) as K.
    destruct (n_is_positive n); [split; [reflexivity | exact K] | intros [_ X]; cbn [fst] in X; lra].
  - apply answers_TF. intros [K _]. exact (NZ K).
Qed.
(* after the repair 089e9a7: nan and zoo answer false *)
Lemma num_nonnegative_sound : forall n v, num_val n = Some v ->
  answers (if n_is_a_Complex n || n_is_nan n || n_is_complex n then TF else if n_is_negative n then TF else TT)
          (v_nonnegative v).
Proof.
  intros n v D. destruct (num_val_kind n v D) as [n q Hq|rn rd imn imd NZ|p|p| |];
    [ | | now apply answers_TT | apply answers_TF; intros [] ..].
  - destruct (num_q_real n q Hq) as (-> & -> & -> & _). pose proof (num_q_negative n q Hq) as K.
    destruct (n_is_negative n); [apply answers_TF; intros [_ X]; cbn [fst] in X; lra | apply answers_TT; split; [reflexivity | exact K]].
  - apply answers_TF. intros [K _]. exact (NZ K).
Qed.
Lemma num_nonpositive_sound : forall n v, num_val n = Some v ->
  answers (if n_is_a_Complex n || n_is_nan n || n_is_complex n then TF else if n_is_positive n then TF else TT)
          (v_nonpositive v).
Proof.
  intros n v D. destruct (num_val_kind n v D) as [n q Hq|rn rd imn imd NZ|p|p| |];
    [ | | apply answers_TF; intros [] | now apply answers_TT | apply answers_TF; intros [] ..].
  - destruct (num_q_real n q Hq) as (-> & -> & -> & _). pose proof (num_q_positive n q Hq) as K.
    destruct (n_is_positive n); [apply answers_TF; intros [_ X]; cbn [fst] in X; lra | apply answers_TT; split; [reflexivity | exact K]].
  - apply answers_TF. intros [K _]. exact (NZ K).
Qed.

Theorem negative_sound : forall rho A, oassum_ok rho A -> forall e t v,
  is_negative A e = QT t -> denote rho e = Some v -> (t = TT -> v_negative v) /\ (t = TF -> ~ v_negative v).
Proof. intros rho A O. exact (leaf_query_sound rho A _ a_negative TF v_negative O num_negative_sound (ok_negative rho)). Qed.
Theorem nonnegative_sound : forall rho A, oassum_ok rho A -> forall e t v,
  is_nonnegative A e = QT t -> denote rho e = Some v -> (t = TT -> v_nonnegative v) /\ (t = TF -> ~ v_nonnegative v).
Proof. intros rho A O. exact (leaf_query_sound rho A _ a_nonnegative TT v_nonnegative O num_nonnegative_sound (ok_nonnegative rho)). Qed.
Theorem nonpositive_sound : forall rho A, oassum_ok rho A -> forall e t v,
  is_nonpositive A e = QT t -> denote rho e = Some v -> (t = TT -> v_nonpositive v) /\ (t = TF -> ~ v_nonpositive v).
Proof. intros rho A O. exact (leaf_query_sound rho A _ a_nonpositive TF v_nonpositive O num_nonpositive_sound (ok_nonpositive rho)). Qed.

Definition term_sem (rho : valuation) (p : expr * number) (acc : option qi) : option qi :=
  add_step (vfin (denote rho (fst p))) (vfin (num_val (snd p))) acc.

Lemma denote_EAdd : forall rho c d,
  denote rho (EAdd c d) = opt_vc (fold_right (term_sem rho) (vfin (num_val c)) d).
Proof. reflexivity. Qed.
Lemma fold_term_none : forall rho d, fold_right (term_sem rho) None d = None.
Proof. induction d as [|p r IH]; cbn [fold_right]; [reflexivity|]. rewrite IH. reflexivity. Qed.
Lemma term_step : forall rho p r init z,
  fold_right (term_sem rho) init (p :: r) = Some z ->
  exists kz vz s, vfin (denote rho (fst p)) = Some kz /\ vfin (num_val (snd p)) = Some vz /\
    fold_right (term_sem rho) init r = Some s /\ z = qi_add (qi_mul vz kz) s.
Proof.
  intros rho p r init z F. cbn [fold_right] in F. unfold term_sem at 1, add_step in F.
  destruct (fold_right (term_sem rho) init r) as [s|]; [|discriminate F].
  destruct (vfin (num_val (snd p))) as [vz|]; [|discriminate F].
  destruct (vfin (denote rho (fst p))) as [kz|]; [|discriminate F]. injection F as <-. eauto 8.
Qed.

(* an invariant [P] of the partial sums that every term of kind [T] preserves holds of the sum *)
Lemma sum_closed : forall (T P : qi -> Prop), (forall x y, T x -> P y -> P (qi_add x y)) ->
  forall rho d a z, P a -> fold_right (term_sem rho) (Some a) d = Some z ->
  (forall p kz vz, In p d -> vfin (denote rho (fst p)) = Some kz -> vfin (num_val (snd p)) = Some vz ->
     T (qi_mul vz kz)) -> P z.
Proof.
  intros T P Padd rho. induction d as [|p r IH]; intros a z Pa F HT.
  - cbn in F. injection F as <-. exact Pa.
  - destruct (term_step rho p r (Some a) z F) as (kz & vz & s & Dk & Dv & Fs & ->).
    apply Padd.
    + apply (HT p kz vz); auto. left. reflexivity.
    + apply (IH a s Pa Fs). intros q kz' vz' Hq. apply HT. right. exact Hq.
Qed.

(* sign of a finite literal used as a coefficient *)
Lemma coef_positive : forall n z, vfin (num_val n) = Some z -> n_is_positive n = true -> qi_real z /\ 0 < fst z.
Proof.
  intros n z H P. destruct (num_fin_cases n z H) as [(q & Hq & ->)|(rn & rd & imn & imd & -> & _ & _)]; [|discriminate P].
  split; [reflexivity|]. pose proof (num_q_positive n q Hq) as K. now rewrite P in K.
Qed.
Lemma coef_negative : forall n z, vfin (num_val n) = Some z -> n_is_negative n = true -> qi_real z /\ fst z < 0.
Proof.
  intros n z H P. destruct (num_fin_cases n z H) as [(q & Hq & ->)|(rn & rd & imn & imd & -> & _ & _)]; [|discriminate P].
  split; [reflexivity|]. pose proof (num_q_negative n q Hq) as K. now rewrite P in K.
Qed.

Lemma real_mul : forall v k, qi_real v -> qi_real k -> qi_real (qi_mul v k) /\ fst (qi_mul v k) == fst v * fst k.
Proof. intros [a b] [c d]. unfold qi_real, qi_mul. cbn [fst snd]. intros B D. split; nra. Qed.

(* the coefficient of a term (tests [vp], [vn]) and its key have the same known sign *)
Definition signed (pos neg : expr -> qr) (vp vn : bool) (k : expr) : Prop :=
  (vp = true /\ pos k = QT TT) \/ (vn = true /\ neg k = QT TT).

(* one of the two conditions of the loop of PositiveVisitor::bvisit(const Add &) *)
Lemma cond_signed : forall (va vb : bool) (p : tribool) (nk : qr) c,
  (if va && t_true p then QT TT else if vb then qmap (fun t => tri_of_bool (t_true t)) nk else QT TF) = QT c ->
  t_true c = true -> (va = true /\ p = TT) \/ (vb = true /\ nk = QT TT).
Proof.
  intros va vb p nk c H T. destruct va, p; cbn [andb t_true] in H; auto;
    (destruct vb; [|injection H as <-; discriminate T]);
    (destruct nk as [[]| | |]; try discriminate H; auto; injection H as <-; discriminate T).
Qed.

(* a true answer of the loop: nothing spoke against it and every term is positive; a false one: every term is negative *)
Lemma pos_add_loop_inv : forall pos neg d ct cf t, pos_add_loop pos neg d ct cf = QT t ->
  (t = TT -> ct = true /\ Forall (fun p => signed pos neg (n_is_positive (snd p)) (n_is_negative (snd p)) (fst p)) d) /\
  (t = TF -> cf = true /\ Forall (fun p => signed pos neg (n_is_negative (snd p)) (n_is_positive (snd p)) (fst p)) d).
Proof.
  intros pos neg. induction d as [|[k v] r IH]; intros ct cf t H; cbn [pos_add_loop] in H.
  - injection H as <-. destruct ct; [|destruct cf]; split; intro E; try discriminate E; auto.
  - destruct (negb ct && negb cf). { injection H as <-. split; discriminate. }
    apply qbind_QT in H as (p & EP & H). apply qbind_QT in H as (c1 & E1 & H).
    destruct (t_true c1) eqn:T1.
    { destruct (IH _ _ _ H) as [I1 I2]. split; intro E.
      - destruct (I1 E) as [C F]. split; [exact C|]. constructor; [|exact F].
        destruct (cond_signed _ _ _ _ _ E1 T1) as [[V ->]|[V N]]; [left | right]; auto.
      - destruct (I2 E) as [C _]. discriminate C. }
    apply qbind_QT in H as (c2 & E2 & H).
    destruct (t_true c2) eqn:T2.
    { destruct (IH _ _ _ H) as [I1 I2]. split; intro E.
      - destruct (I1 E) as [C _]. discriminate C.
      - destruct (I2 E) as [C F]. split; [exact C|]. constructor; [|exact F].
        destruct (cond_signed _ _ _ _ _ E2 T2) as [[V ->]|[V N]]; [left | right]; auto. }
    destruct (IH _ _ _ H) as [I1 I2].
    split; intro E; [destruct (I1 E) as [C _] | destruct (I2 E) as [C _]]; discriminate C.
Qed.

Section Term.
  Variables (pos neg : expr -> qr) (k : expr) (v : number) (kz vz : qi).
  Hypothesis pos_ok : pos k = QT TT -> qi_real kz /\ 0 < fst kz.
  Hypothesis neg_ok : neg k = QT TT -> qi_real kz /\ fst kz < 0.
  Hypothesis Dv : vfin (num_val v) = Some vz.

  Lemma term_positive : signed pos neg (n_is_positive v) (n_is_negative v) k ->
    qi_real (qi_mul vz kz) /\ 0 < fst (qi_mul vz kz).
  Proof using pos_ok neg_ok Dv.
    intros [[V K]|[V K]]; [destruct (coef_positive v vz Dv V) as [R1 G1], (pos_ok K) as [R2 G2]
                          | destruct (coef_negative v vz Dv V) as [R1 G1], (neg_ok K) as [R2 G2]];
      destruct (real_mul vz kz R1 R2) as [R E]; (split; [exact R | rewrite E; nra]).
  Qed.
  Lemma term_negative : signed pos neg (n_is_negative v) (n_is_positive v) k ->
    qi_real (qi_mul vz kz) /\ fst (qi_mul vz kz) < 0.
  Proof using pos_ok neg_ok Dv.
    intros [[V K]|[V K]]; [destruct (coef_negative v vz Dv V) as [R1 G1], (pos_ok K) as [R2 G2]
                          | destruct (coef_positive v vz Dv V) as [R1 G1], (neg_ok K) as [R2 G2]];
      destruct (real_mul vz kz R1 R2) as [R E]; (split; [exact R | rewrite E; nra]).
  Qed.
End Term.

(* the rule of PositiveVisitor for a sum, given sound answers on its keys: true needs a coefficient >= 0 and
   positive terms, at least one; false a coefficient that is not positive and negative terms *)
Lemma positive_add_sound : forall rho (pos neg : expr -> qr) c d t cz z,
  (forall p kz, In p d -> vfin (denote rho (fst p)) = Some kz -> pos (fst p) = QT TT -> qi_real kz /\ 0 < fst kz) ->
  (forall p kz, In p d -> vfin (denote rho (fst p)) = Some kz -> neg (fst p) = QT TT -> qi_real kz /\ fst kz < 0) ->
  d <> [] -> vfin (num_val c) = Some cz -> fold_right (term_sem rho) (Some cz) d = Some z ->
  pos_add_loop pos neg d (negb (n_is_negative c) && negb (n_is_complex c || n_is_nan c)) (negb (n_is_positive c)) = QT t ->
  answers t (v_positive (VC z)).
Proof.
  intros rho pos neg c d t cz z KP KN GD EC EF H. destruct (pos_add_loop_inv _ _ _ _ _ _ H) as [L1 L2]. clear H.
  cbn [v_positive]. unfold qi_real in *. split; intro E.
  - destruct (L1 E) as [CT ALL]. apply andb_prop in CT. destruct CT as [CT1 CT2]. apply negb_true_iff in CT1, CT2.
    destruct (num_fin_cases c cz EC) as [(q & Hq & ->)|(rn & rd & imn & imd & -> & _)]; [|discriminate CT2].
    pose proof (num_q_negative c q Hq) as Q0. rewrite CT1 in Q0. rewrite Forall_forall in ALL.
    destruct d as [|p r]; [now elim GD|].
    destruct (term_step rho p r _ z EF) as (kz & vz & s & Dk & Dv & Fs & ->).
    destruct (term_positive _ _ _ _ kz vz (KP p kz (or_introl eq_refl) Dk) (KN p kz (or_introl eq_refl) Dk) Dv
                (ALL p (or_introl eq_refl))) as [R1 G1].
    assert (PS : snd s == 0 /\ 0 <= fst s).
    { apply (sum_closed (fun x => snd x == 0 /\ 0 < fst x) (fun y => snd y == 0 /\ 0 <= fst y)) with rho r (q, 0) ; auto.
      - intros x y [X1 X2] [Y1 Y2]. unfold qi_add. cbn [fst snd]. split; lra.
      - split; [reflexivity | exact Q0].
      - intros p' kz' vz' Hp' Dk' Dv'.
        exact (term_positive _ _ _ _ kz' vz' (KP p' kz' (or_intror Hp') Dk') (KN p' kz' (or_intror Hp') Dk') Dv'
                 (ALL p' (or_intror Hp'))). }
    destruct PS as [S1 S2]. unfold qi_real in R1. unfold qi_add. cbn [fst snd]. split; lra.
  - destruct (L2 E) as [CF ALL]. apply negb_true_iff in CF. rewrite Forall_forall in ALL.
    assert (PS : snd z == snd cz /\ fst z <= fst cz).
    { apply (sum_closed (fun x => snd x == 0 /\ fst x < 0) (fun y => snd y == snd cz /\ fst y <= fst cz)) with rho d cz; auto.
      - intros x y [X1 X2] [Y1 Y2]. unfold qi_add. cbn [fst snd]. split; lra.
      - split; [reflexivity | apply Qle_refl].
      - intros p kz vz Hp Dk Dv. exact (term_negative _ _ _ _ kz vz (KP p kz Hp Dk) (KN p kz Hp Dk) Dv (ALL p Hp)). }
    destruct PS as [S1 S2].
    destruct (num_fin_cases c cz EC) as [(q & Hq & ->)|(rn & rd & imn & imd & -> & NI & ->)]; cbn [fst snd] in *.
    + pose proof (num_q_positive c q Hq) as Q0. rewrite CF in Q0. intros [_ K]. lra.
    + intros [K _]. apply NI. now rewrite <- S1.
Qed.

Lemma pos_guard_add : forall c d, pos_guard (EAdd c d) = true ->
  d <> [] /\ forall p, In p d -> pos_guard (fst p) = true.
Proof.
  intros c d G. cbn [pos_guard] in G. apply andb_prop in G. destruct G as [G2 G3].
  split; [intros -> ; discriminate G2 | exact (proj1 (forallb_forall _ d) G3)].
Qed.

Theorem positive_sound_fuel : forall rho A, oassum_ok rho A -> forall fuel e t v, pos_guard e = true ->
  q_positive A fuel e = QT t -> denote rho e = Some v -> (t = TT -> v_positive v) /\ (t = TF -> ~ v_positive v).
Proof.
  intros rho A O. induction fuel as [|f IH]; intros e t v G H D; [discriminate H|].
  cbn [q_positive] in H. destruct e;
    try (destruct (is_setbool _); [discriminate H | injection H as <-; exact (answers_TI _)]).
  - injection H as <-. now apply num_positive_sound.
  - exact (sym_map_sound rho A a_positive v_positive _ t v O (ok_positive rho) H D).
  - exact (sym_map_sound rho A a_positive v_positive _ t v O (ok_positive rho) H D).
  - discriminate D.
  - (* Add *)
    destruct (pos_guard_add coef d G) as (GD & GK). rewrite denote_EAdd in D.
    destruct (vfin (num_val coef)) as [cz|] eqn:EC; [|rewrite fold_term_none in D; discriminate D].
    destruct (fold_right (term_sem rho) (Some cz) d) as [z|] eqn:EF; [|discriminate D]. injection D as <-.
    apply (positive_add_sound rho (q_positive A f) (is_negative A) coef d t cz z); auto.
    + intros p kz Hp Dk Q. exact (proj1 (IH (fst p) TT (VC kz) (GK p Hp) Q (vfin_some _ _ Dk)) eq_refl).
    + intros p kz _ Dk Q. exact (proj1 (negative_sound rho A O (fst p) TT (VC kz) Q (vfin_some _ _ Dk)) eq_refl).
Qed.

(* pos_guard: every sum has at least one term *)
Theorem positive_sound_guarded : forall rho A, oassum_ok rho A -> forall e t v, pos_guard e = true ->
  is_positive A e = QT t -> denote rho e = Some v -> (t = TT -> v_positive v) /\ (t = TF -> ~ v_positive v).
Proof. intros rho A O e t v G H D. eapply positive_sound_fuel; eauto. Qed.
