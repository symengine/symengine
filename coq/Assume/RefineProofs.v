(* C35 -- value preservation of the rules of RefineVisitor, rule by rule: when the model of a rule
   decides for a candidate, the candidate has the value of the original node at every valuation
   that satisfies the assumptions.  The candidates are built by library constructors (neg, abs,
   ceiling ...); the theorems are stated on VALUES: e.g. for Abs/DNeg "the value of abs(a) equals
   minus the value of a".  They use the query soundness theorems of C34 (AssumeProofs*.v), so an
   unsound query would show up here as an unprovable rule.  Each rule in three steps: what the decision says
   about the answers of the queries, what a true answer says of the value, what the function does on such a value.
   Pow-of-Pow: RefinePow.v; Max/Min: RefineMaxMin.v.  Log and simplify_pow have no theorem (values outside
   Q(i)): correspondence and oracle only. *)
From SE Require Import Assume.AssumeSem Num.NumQi Assume.RefineModel
  Assume.AssumeProofs Assume.AssumeProofs2 Assume.C34Theorems.
From Coq Require Import QArith Qabs Qround List ZArith Bool Lia Lqa.
Import ListNotations.
Local Open Scope Q_scope.

(* an expression with a finite value is not the literal nan or zoo *)
Lemma finite_sign_guard : forall rho e z, vfin (denote rho e) = Some z -> sign_guard e = true.
Proof.
  intros rho e z V. destruct e as [n| | | | | | | | | | | | | | | | | ]; try reflexivity.
  destruct n as [k|p d|rn rd imn imd| | |[|p|p]|]; try reflexivity; discriminate V.
Qed.

Lemma qb_true : forall r k d, qb r k = d -> d <> DExn -> d <> DUnsup -> exists t, r = QT t /\ k (t_true t) = d.
Proof. intros r k d H N1 N2. destruct r; cbn in H; try congruence. eauto. Qed.

(* a decision reached through the true branch of a test that the other branch cannot reach *)
Lemma qb_branch : forall r d rest, d <> DExn -> d <> DUnsup -> rest <> d ->
  qb r (fun b => if b then d else rest) = d -> r = QT TT.
Proof.
  intros r d rest N1 N2 N3 H. destruct (qb_true r _ d H N1 N2) as ([] & -> & K); cbn in K; congruence.
Qed.
Lemma qb_neq : forall r k d, d <> DExn -> d <> DUnsup -> (forall b, k b <> d) -> qb r k <> d.
Proof. intros [t| | |] k d N1 N2 N3; cbn; auto; congruence. Qed.

Section Decisions.
  Variable A : option assum.

  Lemma refine_abs_id : forall na, refine_abs A na = DId -> is_nonnegative A na = QT TT.
  Proof.
    intros na H. apply (qb_branch _ DId _) in H; try discriminate; auto.
    apply qb_neq; try discriminate. intros []; [discriminate|].
    destruct na; try discriminate. destruct (_ =? _)%N; discriminate.
  Qed.
  Lemma refine_abs_neg : forall na, refine_abs A na = DNeg -> is_nonpositive A na = QT TT.
  Proof.
    intros na H. destruct (qb_true _ _ _ H) as (t & _ & K); try discriminate.
    destruct (t_true t); [discriminate K|]. apply (qb_branch _ DNeg _) in K; try discriminate; auto.
    destruct na; try discriminate. destruct (_ =? _)%N; discriminate.
  Qed.

  Lemma refine_sign_one : forall na, refine_sign A na = DOne -> is_positive A na = QT TT.
  Proof.
    intros na H. apply (qb_branch _ DOne _) in H; try discriminate; auto.
    apply qb_neq; try discriminate. intros []; [discriminate|].
    apply qb_neq; try discriminate. intros []; discriminate.
  Qed.
  Lemma refine_sign_minus_one : forall na, refine_sign A na = DMone -> is_negative A na = QT TT.
  Proof.
    intros na H. destruct (qb_true _ _ _ H) as (t & _ & K); try discriminate.
    destruct (t_true t); [discriminate K|]. apply (qb_branch _ DMone _) in K; try discriminate; auto.
    apply qb_neq; try discriminate. intros []; discriminate.
  Qed.
  Lemma refine_sign_zero : forall na, refine_sign A na = DZero -> is_zero A na = QT TT.
  Proof.
    intros na H. destruct (qb_true _ _ _ H) as (t & _ & K); try discriminate.
    destruct (t_true t); [discriminate K|]. destruct (qb_true _ _ _ K) as (u & _ & X); try discriminate.
    destruct (t_true u); [discriminate X|]. apply (qb_branch _ DZero _) in X; try discriminate; auto.
  Qed.

  Lemma refine_floor_id : forall na cem, refine_floor A na cem = DId -> is_integer A na = QT TT.
  Proof. intros na cem H. apply (qb_branch _ DId _) in H; try discriminate; auto. destruct cem; discriminate. Qed.
  (* [refine_ceiling] is [refine_floor] *)
  Lemma refine_ceiling_id : forall na cem, refine_ceiling A na cem = DId -> is_integer A na = QT TT.
  Proof. exact refine_floor_id. Qed.

  Lemma refine_conjugate_id : forall na, refine_conjugate A na = DId -> is_real A na = QT TT.
  Proof. intros na H. apply (qb_branch _ DId _) in H; try discriminate; auto. Qed.
End Decisions.

Lemma real_realb : forall z, qi_real z -> qi_is_realb z = true.
Proof. intros z R. now apply qi_is_realb_iff. Qed.

Lemma q_is_zero_opp : forall b, q_is_zero (- b) = q_is_zero b.
Proof. intros [[|p|p] d]; reflexivity. Qed.

Lemma q_sgn_pos : forall a, 0 < a -> q_sgn a == 1.
Proof. intros [[|n|n] d] P; try discriminate P. reflexivity. Qed.
Lemma q_sgn_neg : forall a, a < 0 -> q_sgn a == -1.
Proof. intros [[|n|n] d] P; try discriminate P. reflexivity. Qed.
Lemma q_sgn_zero : forall a, a == 0 -> q_sgn a == 0.
Proof. intros a Z. now apply Zsgn_zero_iff. Qed.

Lemma qsqrt_proper : forall p q, p == q -> qsqrt p = qsqrt q.
Proof. intros p q E. unfold qsqrt. rewrite (Qred_complete p q E). reflexivity. Qed.

Lemma floor_of_int : forall a k, a == inject_Z k -> inject_Z (Qfloor a) == a.
Proof. intros a k E. rewrite (Qfloor_comp a (inject_Z k) E), Qfloor_Z. now symmetry. Qed.
Lemma ceiling_of_int : forall a k, a == inject_Z k -> inject_Z (Qceiling a) == a.
Proof. intros a k E. rewrite (Qceiling_comp a (inject_Z k) E), Qceiling_Z. now symmetry. Qed.

(* [f z = Some w] for one of the four functions at a real z: w is real with the real part [g (fst z)] *)
Lemma real_fun_value : forall (g : Q -> Q) (f : qi -> option qi) z w,
  (forall z, qi_is_realb z = true -> f z = Some (g (fst z), 0)) ->
  qi_real z -> f z = Some w -> w = (g (fst z), 0).
Proof. intros g f z w F R H. rewrite (F z (real_realb z R)) in H. now injection H. Qed.

Lemma qi_abs_real : forall z, qi_is_realb z = true -> qi_abs z = Some (Qabs (fst z), 0).
Proof. intros z R. unfold qi_abs. now rewrite R. Qed.
Lemma qi_sign_real : forall z, qi_is_realb z = true -> qi_sign z = Some (q_sgn (fst z), 0).
Proof. intros z R. unfold qi_sign. now rewrite R. Qed.
Lemma qi_floor_real : forall z, qi_is_realb z = true -> qi_floor z = Some (inject_Z (Qfloor (fst z)), 0).
Proof. intros z R. unfold qi_floor. now rewrite R. Qed.
Lemma qi_ceiling_real : forall z, qi_is_realb z = true -> qi_ceiling z = Some (inject_Z (Qceiling (fst z)), 0).
Proof. intros z R. unfold qi_ceiling. now rewrite R. Qed.

(* w = (g (fst z), 0) is z, for a real z with g (fst z) == fst z *)
Lemma real_value_eq : forall z q, qi_real z -> q == fst z -> qi_eq (q, 0) z.
Proof. intros [a b] q R E. split; cbn [fst snd]; [exact E | now symmetry]. Qed.

Section Rules.
  Variables (rho : valuation) (A : option assum).
  Hypothesis HO : oassum_ok rho A.

  (* what a true answer says of a finite value *)
  Lemma positive_true : forall na z, is_positive A na = QT TT -> pos_guard na = true ->
    vfin (denote rho na) = Some z -> qi_real z /\ 0 < fst z.
  Proof using HO. intros na z E G V. exact (proj1 (positive_sound_guarded rho A HO na TT (VC z) G E (vfin_some _ _ V)) eq_refl). Qed.
  Lemma negative_true : forall na z, is_negative A na = QT TT ->
    vfin (denote rho na) = Some z -> qi_real z /\ fst z < 0.
  Proof using HO. intros na z E V. exact (proj1 (negative_sound rho A HO na TT (VC z) E (vfin_some _ _ V)) eq_refl). Qed.
  Lemma nonnegative_true : forall na z, is_nonnegative A na = QT TT ->
    vfin (denote rho na) = Some z -> qi_real z /\ 0 <= fst z.
  Proof using HO. intros na z E V. exact (proj1 (nonnegative_sound rho A HO na TT (VC z) E (vfin_some _ _ V)) eq_refl). Qed.
  Lemma nonpositive_true : forall na z, is_nonpositive A na = QT TT ->
    vfin (denote rho na) = Some z -> qi_real z /\ fst z <= 0.
  Proof using HO. intros na z E V. exact (proj1 (nonpositive_sound rho A HO na TT (VC z) E (vfin_some _ _ V)) eq_refl). Qed.
  Lemma integer_true : forall na z, is_integer A na = QT TT -> keys_ok na = true ->
    vfin (denote rho na) = Some z -> qi_real z /\ q_isint (fst z).
  Proof using HO. intros na z E K V. exact (proj1 (integer_sound rho A HO na TT (VC z) K E (vfin_some _ _ V)) eq_refl). Qed.

  Lemma real_true : forall na z, is_real A na = QT TT -> keys_ok na = true ->
    vfin (denote rho na) = Some z -> qi_real z.
  Proof using HO. intros na z E K V. apply (real_sound_guarded rho A HO na (VC z) K E (vfin_some _ _ V)). discriminate. Qed.

  Theorem abs_rule_id : forall na z w, refine_abs A na = DId ->
    vfin (denote rho na) = Some z -> qi_abs z = Some w -> qi_eq w z.
  Proof using HO.
    intros na z w H V QA. destruct (nonnegative_true na z (refine_abs_id A na H) V) as [R P].
    rewrite (real_fun_value Qabs qi_abs z w qi_abs_real R QA). apply (real_value_eq z _ R). now apply Qabs_pos.
  Qed.

  Theorem abs_rule_neg : forall na z w, refine_abs A na = DNeg ->
    vfin (denote rho na) = Some z -> qi_abs z = Some w -> qi_eq w (qi_opp z).
  Proof using HO.
    intros na z w H V QA. destruct (nonpositive_true na z (refine_abs_neg A na H) V) as [R P].
    rewrite (real_fun_value Qabs qi_abs z w qi_abs_real R QA). destruct z as [a b]. unfold qi_real in R.
    split; cbn [fst snd qi_opp] in *; [now apply Qabs_neg | lra].
  Qed.

  (* abs(conjugate(u)) -> abs(u) *)
  Theorem abs_rule_conj : forall na inner zi w1 w2, refine_abs A na = DConj -> na = EF1 TC_Conjugate inner ->
    vfin (denote rho inner) = Some zi -> qi_abs (qi_conj zi) = Some w1 -> qi_abs zi = Some w2 -> qi_eq w1 w2.
  Proof using.
    intros na inner [a b] w1 w2 _ _ _ Q1 Q2. unfold qi_abs, qi_conj, qi_is_realb in *. cbn [fst snd] in *.
    rewrite q_is_zero_opp in Q1. destruct (q_is_zero b).
    - injection Q1 as <-. injection Q2 as <-. reflexivity.
    - assert (N : qi_norm2 (a, - b) == qi_norm2 (a, b)) by (unfold qi_norm2; cbn [fst snd]; ring).
      rewrite (qsqrt_proper _ _ N) in Q1. destruct (qsqrt (qi_norm2 (a, b))); [|discriminate Q1].
      injection Q1 as <-. injection Q2 as <-. reflexivity.
  Qed.

  Theorem sign_rule_one : forall na z w, refine_sign A na = DOne -> pos_guard na = true ->
    vfin (denote rho na) = Some z -> qi_sign z = Some w -> qi_eq w (inject_Z 1, 0).
  Proof using HO.
    intros na z w H G V QS. destruct (positive_true na z (refine_sign_one A na H) G V) as [R P].
    rewrite (real_fun_value q_sgn qi_sign z w qi_sign_real R QS). split; [now apply q_sgn_pos | reflexivity].
  Qed.

  Theorem sign_rule_minus_one : forall na z w, refine_sign A na = DMone ->
    vfin (denote rho na) = Some z -> qi_sign z = Some w -> qi_eq w (inject_Z (-1), 0).
  Proof using HO.
    intros na z w H V QS. destruct (negative_true na z (refine_sign_minus_one A na H) V) as [R P].
    rewrite (real_fun_value q_sgn qi_sign z w qi_sign_real R QS). split; [now apply q_sgn_neg | reflexivity].
  Qed.

  Theorem sign_rule_zero : forall na z w, refine_sign A na = DZero ->
    vfin (denote rho na) = Some z -> qi_sign z = Some w -> qi_eq w qi_zero.
  Proof using HO.
    intros na z w H V QS. apply (qi_sign_zero_iff z w QS).
    exact (proj1 (zero_sound rho A HO na TT (VC z) (refine_sign_zero A na H) (vfin_some _ _ V)) eq_refl).
  Qed.

  Theorem floor_rule_id : forall na z w, refine_floor A na true = DId \/ refine_floor A na false = DId ->
    keys_ok na = true -> vfin (denote rho na) = Some z -> qi_floor z = Some w -> qi_eq w z.
  Proof using HO.
    intros na z w H K V QF. assert (I : is_integer A na = QT TT) by (destruct H as [H|H]; exact (refine_floor_id A na _ H)).
    destruct (integer_true na z I K V) as [R [k Kk]].
    rewrite (real_fun_value (fun q => inject_Z (Qfloor q)) qi_floor z w qi_floor_real R QF). apply (real_value_eq z _ R). exact (floor_of_int _ k Kk).
  Qed.
  Theorem ceiling_rule_id : forall na z w, refine_ceiling A na true = DId \/ refine_ceiling A na false = DId ->
    keys_ok na = true -> vfin (denote rho na) = Some z -> qi_ceiling z = Some w -> qi_eq w z.
  Proof using HO.
    intros na z w H K V QF. assert (I : is_integer A na = QT TT) by (destruct H as [H|H]; exact (refine_ceiling_id A na _ H)).
    destruct (integer_true na z I K V) as [R [k Kk]].
    rewrite (real_fun_value (fun q => inject_Z (Qceiling q)) qi_ceiling z w qi_ceiling_real R QF). apply (real_value_eq z _ R). exact (ceiling_of_int _ k Kk).
  Qed.

  (* floor(x) -> -ceiling(-x) and ceiling(x) -> -floor(-x): identities, whatever the queries say *)
  Theorem floor_rule_flip : forall z w c, qi_floor z = Some w -> qi_ceiling (qi_opp z) = Some c -> qi_eq w (qi_opp c).
  Proof using.
    intros [a b] w c QF QC. unfold qi_floor, qi_ceiling, qi_opp, qi_is_realb in *. cbn [fst snd] in *.
    rewrite q_is_zero_opp in QC. destruct (q_is_zero b); [|discriminate QF]. injection QF as <-. injection QC as <-.
    split; cbn [fst snd]; [|reflexivity].
    unfold Qceiling. rewrite inject_Z_opp, Qopp_involutive.
    rewrite (Qfloor_comp (- - a) a (Qopp_involutive a)). reflexivity.
  Qed.
  Theorem ceiling_rule_flip : forall z w c, qi_ceiling z = Some w -> qi_floor (qi_opp z) = Some c -> qi_eq w (qi_opp c).
  Proof using.
    intros [a b] w c QC QF. unfold qi_floor, qi_ceiling, qi_opp, qi_is_realb in *. cbn [fst snd] in *.
    rewrite q_is_zero_opp in QF. destruct (q_is_zero b); [|discriminate QC]. injection QF as <-. injection QC as <-.
    split; cbn [fst snd]; [|reflexivity].
    unfold Qceiling. rewrite inject_Z_opp. reflexivity.
  Qed.

  Theorem conjugate_rule_id : forall na z, refine_conjugate A na = DId -> keys_ok na = true ->
    vfin (denote rho na) = Some z -> qi_eq (qi_conj z) z.
  Proof using HO.
    intros na z H K V. pose proof (real_true na z (refine_conjugate_id A na H) K V) as R.
    destruct z as [a b]. unfold qi_real in R. unfold qi_conj. cbn [fst snd] in *.
    split; cbn [fst snd]; [reflexivity | lra].
  Qed.
End Rules.

(* (x^3)^(1/2) with x real used to be rewritten to abs(x)^(3/2) (at x = -1: I versus 1).  After the repair
   (commit ef8465f) the abs branch needs an even integer inner exponent: the rule keeps this node. *)
Definition e_sqrt_x3 : expr := EPow (EPow sx (ENum (NInt 3))) (ENum (NRat 1 2)).
Definition e_abs_x_32 : expr := EPow (EF1 TC_Abs sx) (ENum (NRat 3 2)).
Example pow_rule_odd_inner_exponent_kept : exists st A rho,
  assum_of st = Ok A /\ osat rho st /\
  refine_pow A (EPow sx (ENum (NInt 3))) (ENum (NRat 1 2)) = DKeep /\
  refine_pow A (EPow sx (ENum (NInt 2))) (ENum (NRat 1 2)) = DAbs /\
  denote rho e_sqrt_x3 = Some (VC (0, 1)) /\ denote rho e_abs_x_32 = Some (VC (1, 0)).
Proof.
  eexists st_real_x, _, (rho_const (-1 # 1, 0)). split; [vm_compute; reflexivity|].
  split; [exact (sat_real_x (-1 # 1))|]. repeat split; vm_compute; reflexivity.
Qed.

(* instances of the rule: (x^2)^(1/2) -> abs(x) at x = -3, (x^2)^(3/2) at x = -2 *)
Example pow_rule_abs_even_instances :
  denote (rho_const (-3 # 1, 0)) (EPow (EPow sx (ENum (NInt 2))) (ENum (NRat 1 2))) = Some (VC (3, 0)) /\
  denote (rho_const (-2 # 1, 0)) (EPow (EPow sx (ENum (NInt 2))) (ENum (NRat 3 2))) = Some (VC (8, 0)).
Proof. split; vm_compute; reflexivity. Qed.
