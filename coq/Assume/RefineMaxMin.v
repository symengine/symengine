(* C35 -- the Max and Min rules of RefineVisitor: dropping the arguments the rule drops does not change the
   extremum.  One argument, over an order [le] with its binary extremum [op] and the four sign classes named by
   the side they lie on; Max is the instance (<=, Qmax), Min the instance (>=, Qmin) with the classes mirrored. *)
From SE Require Import Assume.AssumeSem Assume.RefineModel Assume.AssumeProofs Assume.RefineProofs.
From Coq Require Import QArith Qminmax List ZArith NArith Bool Lia Lqa.
Import ListNotations.
Local Open Scope Q_scope.

Definition class_ok (c : mclass) (v : Q) : Prop :=
  match c with
  | MPos => 0 < v | MNonneg => 0 <= v | MNeg => v < 0 | MNonpos => v <= 0
  | _ => True
  end.

(* the value of the argument with index i *)
Definition val_at (vals : list Q) (i : N) : Q := nth (N.to_nat i) vals 0.

Lemma mc_eqb_refl : forall a, mc_eqb a a = true.
Proof. intros []; reflexivity. Qed.
Lemma mc_eqb_eq : forall a b, mc_eqb a b = true <-> a = b.
Proof.
  intros a b. split; [|intros <-; apply mc_eqb_refl].
  destruct a; destruct b; intro H; try discriminate H; reflexivity.
Qed.

Lemma index_from_in : forall l s i c, In (i, c) (index_from s l) <->
  exists k, i = (s + N.of_nat k)%N /\ nth_error l k = Some c.
Proof.
  induction l as [|a r IH]; intros s i c; cbn [index_from].
  - split; [intros [] | intros (k & _ & H); destruct k; discriminate H].
  - split.
    + intros [E|H].
      * injection E as <- <-. exists 0%nat. split; [cbn; lia | reflexivity].
      * apply IH in H. destruct H as (k & -> & Hk). exists (S k). split; [lia | exact Hk].
    + intros (k & -> & Hk). destruct k as [|k].
      * left. cbn in Hk. injection Hk as <-. f_equal. cbn. lia.
      * right. apply IH. exists k. split; [lia | exact Hk].
Qed.

Lemma pick_in : forall f l i, In i (pick f l) <-> exists c, In (i, c) l /\ f c = true.
Proof.
  intros f l i. unfold pick. rewrite in_map_iff. split.
  - intros ([j c] & <- & H). apply filter_In in H. destruct H as [H1 H2]. exists c. split; assumption.
  - intros (c & H1 & H2). exists (i, c). split; [reflexivity|]. apply filter_In. split; assumption.
Qed.
Lemma has_iff : forall c l, has c l = true <-> exists i, In (i, c) l.
Proof.
  intros c l. unfold has. rewrite existsb_exists. split.
  - intros ([i c'] & H1 & H2). apply mc_eqb_eq in H2. cbn in H2. subst c'. eauto.
  - intros (i & H). exists (i, c). split; [exact H | apply mc_eqb_refl].
Qed.

Lemma index_from_0_in : forall l i c, In (i, c) (index_from 0 l) <-> exists k, i = N.of_nat k /\ nth_error l k = Some c.
Proof. intros l i c. exact (index_from_in l 0 i c). Qed.

(* a position of a list as long as [vals] holds a value, and [val_at] reads it *)
Lemma val_at_nth : forall (X : Type) (l : list X) vals k c, length l = length vals -> nth_error l k = Some c ->
  exists v, nth_error vals k = Some v /\ val_at vals (N.of_nat k) = v /\ In v vals.
Proof.
  intros X l vals k c L Hk. assert (LT : (k < length vals)%nat) by (rewrite <- L; apply nth_error_Some; congruence).
  destruct (nth_error vals k) as [v|] eqn:E; [|apply nth_error_None in E; lia].
  exists v. split; [reflexivity|]. split.
  - unfold val_at. rewrite Nat2N.id. now apply nth_error_nth.
  - eapply nth_error_In; eauto.
Qed.

Section Extremum.
  Variables (le : Q -> Q -> Prop) (op : Q -> Q -> Q).
  Hypothesis le_refl : forall x, le x x.
  Hypothesis le_trans : forall x y z, le x y -> le y z -> le x z.
  Hypothesis le_antisym : forall x y, le x y -> le y x -> x == y.
  Hypothesis op_l : forall a b, le a (op a b).
  Hypothesis op_r : forall a b, le b (op a b).
  Hypothesis op_sel : forall a b, le (op a b) a \/ le (op a b) b.

  Definition extl (l : list Q) : option Q :=
    match l with [] => None | a :: r => Some (fold_left op r a) end.

  Lemma fold_ub : forall r a x, In x (a :: r) -> le x (fold_left op r a).
  Proof.
    induction r as [|b r IH]; intros a x H; cbn [fold_left].
    - destruct H as [<-|[]]. apply le_refl.
    - destruct H as [<-|[<-|H]].
      + apply le_trans with (op a b); [apply op_l | apply IH; left; reflexivity].
      + apply le_trans with (op a b); [apply op_r | apply IH; left; reflexivity].
      + apply IH. right. exact H.
  Qed.
  Lemma fold_in : forall r a, exists x, In x (a :: r) /\ le (fold_left op r a) x.
  Proof.
    induction r as [|b r IH]; intros a; cbn [fold_left].
    - exists a. split; [left; reflexivity | apply le_refl].
    - destruct (IH (op a b)) as (x & [<-|Hx] & E).
      + destruct (op_sel a b) as [S|S].
        * exists a. split; [left; reflexivity | exact (le_trans _ _ _ E S)].
        * exists b. split; [right; left; reflexivity | exact (le_trans _ _ _ E S)].
      + exists x. split; [right; right; exact Hx | exact E].
  Qed.

  (* two lists that dominate each other have the same extremum *)
  Lemma extl_same : forall l1 l2 M1 M2, extl l1 = Some M1 -> extl l2 = Some M2 ->
    (forall x, In x l1 -> exists y, In y l2 /\ le x y) ->
    (forall y, In y l2 -> exists x, In x l1 /\ le y x) -> M1 == M2.
  Proof.
    assert (HALF : forall l1 l2 M1 M2, extl l1 = Some M1 -> extl l2 = Some M2 ->
              (forall x, In x l1 -> exists y, In y l2 /\ le x y) -> le M1 M2).
    { intros [|a1 r1] [|a2 r2] M1 M2 H1 H2 D; try discriminate. injection H1 as <-. injection H2 as <-.
      destruct (fold_in r1 a1) as (x & Hx & L1). destruct (D x Hx) as (y & Hy & L).
      exact (le_trans _ _ _ L1 (le_trans _ _ _ L (fold_ub r2 a2 y Hy))). }
    intros l1 l2 M1 M2 H1 H2 D1 D2. apply le_antisym; eapply HALF; eauto.
  Qed.

  (* [hi], [whi]: the classes on the side of the extremum (strict, weak); [wlo], [lo]: those on the other side *)
  Variables hi whi wlo lo : mclass.
  Hypothesis cover : forall c, In c [hi; whi; wlo; lo; MOther; MExn; MUnsup].
  Hypothesis ok_hi : forall c v, class_ok c v -> c = hi \/ c = whi -> le 0 v.
  Hypothesis ok_lo : forall c v, class_ok c v -> c = wlo \/ c = lo -> le v 0.

  (* the decision on classes: an argument on the other side is dropped as soon as one on the side of the extremum
     is there to dominate it *)
  Definition kept (cl : list (N * mclass)) : list N :=
    let keep := pick (fun c => mc_eqb c hi || mc_eqb c whi || mc_eqb c MOther) cl in
    let keep1 := if negb (has hi cl) then keep ++ pick (mc_eqb wlo) cl else keep in
    if negb (has whi cl) && negb (has hi cl) then keep1 ++ pick (mc_eqb lo) cl else keep1.
  Definition ext_dec (cls : list mclass) : dec :=
    let cl := index_from 0 cls in
    if has MExn cl then DExn else if has MUnsup cl then DUnsup else DList (kept cl).

  (* the three ways of being kept *)
  Lemma kept_side : forall cl i c, In (i, c) cl -> c = hi \/ c = whi \/ c = MOther -> In i (kept cl).
  Proof using.
    intros cl i c Hi Hc. assert (Hb : In i (pick (fun c0 => mc_eqb c0 hi || mc_eqb c0 whi || mc_eqb c0 MOther) cl)).
    { apply pick_in. exists c. split; [exact Hi|].
      destruct Hc as [-> | [-> | ->]]; rewrite mc_eqb_refl, ?orb_true_r; reflexivity. }
    unfold kept. destruct (negb (has whi cl) && negb (has hi cl)); destruct (negb (has hi cl));
      repeat (apply in_or_app; left); exact Hb.
  Qed.
  Lemma kept_wlo : forall cl i, has hi cl = false -> In (i, wlo) cl -> In i (kept cl).
  Proof using.
    intros cl i HP Hi. assert (Hp : In i (pick (mc_eqb wlo) cl)) by (apply pick_in; exists wlo; split; [exact Hi | apply mc_eqb_refl]).
    unfold kept. rewrite HP. cbn [negb]. destruct (negb (has whi cl) && true).
    - apply in_or_app. left. apply in_or_app. right. exact Hp.
    - apply in_or_app. right. exact Hp.
  Qed.
  Lemma kept_lo : forall cl i, has hi cl = false -> has whi cl = false -> In (i, lo) cl -> In i (kept cl).
  Proof using.
    intros cl i HP HN Hi. unfold kept. rewrite HP, HN. cbn [negb andb]. apply in_or_app. right.
    apply pick_in. exists lo. split; [exact Hi | apply mc_eqb_refl].
  Qed.
  Lemma kept_sub : forall cl i, In i (kept cl) -> exists c, In (i, c) cl.
  Proof using.
    intros cl i Hi. unfold kept in Hi.
    destruct (negb (has whi cl) && negb (has hi cl)); destruct (negb (has hi cl));
      repeat (apply in_app_or in Hi; destruct Hi as [Hi|Hi]); apply pick_in in Hi; destruct Hi as (c & Hc & _); eauto.
  Qed.

  Theorem ext_dec_sound : forall cls vals keep M M',
    ext_dec cls = DList keep ->
    length cls = length vals ->
    (forall k c v, nth_error cls k = Some c -> nth_error vals k = Some v -> class_ok c v) ->
    extl vals = Some M -> extl (map (val_at vals) keep) = Some M' -> M == M'.
  Proof using le_refl le_trans le_antisym op_l op_r op_sel cover ok_hi ok_lo.
    intros cls vals keep M M' H L OK HM HM'. unfold ext_dec in H.
    pose proof (index_from_0_in cls) as CL. pose proof (val_at_nth _ cls vals) as VAL.
    set (cl := index_from 0 cls) in *.
    destruct (has MExn cl) eqn:HE; [discriminate H|]. destruct (has MUnsup cl) eqn:HU; [discriminate H|].
    injection H as <-.
    apply (extl_same vals (map (val_at vals) (kept cl)) M M' HM HM').
    - (* every value is dominated by a kept one: by itself, or, on the other side of 0, by a kept one on the side of
         the extremum *)
      intros x Hx. apply In_nth_error in Hx. destruct Hx as (k & Hk).
      assert (LT : (k < length cls)%nat) by (rewrite L; apply nth_error_Some; congruence).
      destruct (nth_error cls k) as [c|] eqn:Ec; [|apply nth_error_None in Ec; lia].
      pose proof (OK k c x Ec Hk) as Ck.
      assert (INk : In (N.of_nat k, c) cl) by (apply CL; eauto).
      assert (SELF : In (N.of_nat k) (kept cl) -> exists y, In y (map (val_at vals) (kept cl)) /\ le x y).
      { intro IK. exists x. split; [|apply le_refl]. apply in_map_iff. exists (N.of_nat k). split; [|exact IK].
        destruct (VAL k c L Ec) as (v & E1 & E2 & _). rewrite Hk in E1. injection E1 as <-. exact E2. }
      assert (OTHER : forall c', c' = hi \/ c' = whi -> has c' cl = true -> le x 0 ->
                exists y, In y (map (val_at vals) (kept cl)) /\ le x y).
      { intros c' Hc' HH X0. apply has_iff in HH. destruct HH as (i & Hi). pose proof Hi as Hi2.
        apply CL in Hi2. destruct Hi2 as (k' & -> & Hk').
        destruct (VAL k' c' L Hk') as (v & E1 & E2 & _).
        exists v. split.
        - apply in_map_iff. exists (N.of_nat k'). split; [exact E2|]. apply (kept_side cl _ c' Hi).
          destruct Hc' as [E|E]; auto.
        - apply le_trans with 0; [exact X0 | exact (ok_hi c' v (OK k' c' v Hk' E1) Hc')]. }
      destruct (cover c) as [<-|[<-|[<-|[<-|[<-|[<-|[<-|[]]]]]]]].
      + apply SELF. apply (kept_side cl _ _ INk). auto.
      + apply SELF. apply (kept_side cl _ _ INk). auto.
      + pose proof (ok_lo wlo x Ck (or_introl eq_refl)) as X0.
        destruct (has hi cl) eqn:HP; [apply (OTHER hi); auto|].
        apply SELF. now apply kept_wlo.
      + pose proof (ok_lo lo x Ck (or_intror eq_refl)) as X0.
        destruct (has hi cl) eqn:HP; [apply (OTHER hi); auto|].
        destruct (has whi cl) eqn:HN; [apply (OTHER whi); auto|].
        apply SELF. now apply kept_lo.
      + apply SELF. apply (kept_side cl _ _ INk). auto.
      + exfalso. assert (has MExn cl = true) by (apply has_iff; eauto). congruence.
      + exfalso. assert (has MUnsup cl = true) by (apply has_iff; eauto). congruence.
    - (* every kept value is one of the values *)
      intros y Hy. apply in_map_iff in Hy. destruct Hy as (i & <- & Hi).
      destruct (kept_sub cl i Hi) as (c & Hc). apply CL in Hc. destruct Hc as (k & -> & Hk).
      destruct (VAL k c L Hk) as (v & _ & E2 & IV). exists v. split; [exact IV|]. rewrite E2. apply le_refl.
  Qed.
End Extremum.

Lemma max_dec_sound : forall cls vals keep M M',
  ext_dec MPos MNonneg MNonpos MNeg cls = DList keep -> length cls = length vals ->
  (forall k c v, nth_error cls k = Some c -> nth_error vals k = Some v -> class_ok c v) ->
  q_maxl vals = Some M -> q_maxl (map (val_at vals) keep) = Some M' -> M == M'.
Proof.
  apply (ext_dec_sound Qle Qmax Qle_refl Qle_trans Qle_antisym Q.le_max_l Q.le_max_r).
  - intros a b. destruct (Q.max_dec a b) as [E|E]; [left | right]; rewrite E; apply Qle_refl.
  - intro c. destruct c; cbn; tauto.
  - intros c v H [-> | ->]; cbn in H; lra.
  - intros c v H [-> | ->]; cbn in H; lra.
Qed.

Lemma min_dec_sound : forall cls vals keep M M',
  ext_dec MNeg MNonpos MNonneg MPos cls = DList keep -> length cls = length vals ->
  (forall k c v, nth_error cls k = Some c -> nth_error vals k = Some v -> class_ok c v) ->
  q_minl vals = Some M -> q_minl (map (val_at vals) keep) = Some M' -> M == M'.
Proof.
  apply (ext_dec_sound (fun x y => y <= x) Qmin); cbn beta.
  - intro x. apply Qle_refl.
  - intros x y z H1 H2. exact (Qle_trans _ _ _ H2 H1).
  - intros x y H1 H2. exact (Qle_antisym _ _ H2 H1).
  - apply Q.le_min_l.
  - apply Q.le_min_r.
  - intros a b. destruct (Q.min_dec a b) as [E|E]; [left | right]; rewrite E; apply Qle_refl.
  - intro c. destruct c; cbn; tauto.
  - intros c v H [-> | ->]; cbn in H; lra.
  - intros c v H [-> | ->]; cbn in H; lra.
Qed.

Lemma reals_of_nth : forall (l : list (option qi)) rs, reals_of l = Some rs ->
  length l = length rs /\
  forall k v, nth_error rs k = Some v -> exists z, nth_error l k = Some (Some z) /\ qi_real z /\ fst z = v.
Proof.
  induction l as [|o r IH]; intros rs H; cbn [reals_of] in H.
  - injection H as <-. split; [reflexivity|]. intros k v Hk. destruct k; discriminate Hk.
  - destruct o as [z|]; [|discriminate H]. destruct (qi_is_realb z) eqn:R; [|discriminate H].
    destruct (reals_of r) as [t|] eqn:E; [|discriminate H]. injection H as <-.
    destruct (IH t eq_refl) as [L N]. split; [cbn; now rewrite L|].
    intros k v Hk. destruct k as [|k].
    + cbn in Hk. injection Hk as <-. exists z. split; [reflexivity|]. split; [now apply qi_is_realb_iff | reflexivity].
    + cbn in Hk. destruct (N k v Hk) as (z' & H1 & H2 & H3). exists z'. split; [exact H1|]. split; assumption.
Qed.

(* one test of max_class / min_class *)
Lemma qc_class_ok : forall r c rest x, (r = QT TT -> class_ok c x) -> class_ok rest x ->
  class_ok (qc r (fun b => if b then c else rest)) x.
Proof. intros [[]| | |] c rest x H1 H2; cbn; auto. Qed.

Section Rules.
  Variables (rho : valuation) (A : option assum).
  Hypothesis HO : oassum_ok rho A.

  Lemma classes_ok : forall a z, pos_guard a = true -> vfin (denote rho a) = Some z ->
    class_ok (max_class A a) (fst z) /\ class_ok (min_class A a) (fst z).
  Proof using HO.
    intros a z G V.
    assert (P : is_positive A a = QT TT -> 0 < fst z) by (intro E; apply (positive_true rho A HO a z E G V)).
    assert (NN : is_nonnegative A a = QT TT -> 0 <= fst z) by (intro E; apply (nonnegative_true rho A HO a z E V)).
    assert (N : is_negative A a = QT TT -> fst z < 0) by (intro E; apply (negative_true rho A HO a z E V)).
    assert (NP : is_nonpositive A a = QT TT -> fst z <= 0) by (intro E; apply (nonpositive_true rho A HO a z E V)).
    split; repeat apply qc_class_ok; auto; exact I.
  Qed.

  (* the hypotheses of ext_dec_sound, from the values of the arguments *)
  Lemma rule_classes : forall (cl : expr -> mclass) nas vals,
    (forall a z, In a nas -> vfin (denote rho a) = Some z -> class_ok (cl a) (fst z)) ->
    reals_of (map (fun a => vfin (denote rho a)) nas) = Some vals ->
    length (map cl nas) = length vals /\
    forall k c v, nth_error (map cl nas) k = Some c -> nth_error vals k = Some v -> class_ok c v.
  Proof using.
    intros cl nas vals C RV. destruct (reals_of_nth _ _ RV) as [L N]. rewrite map_length in L |- *.
    split; [exact L|]. intros k c v Hc Hv. destruct (N k v Hv) as (z & Hz & _ & <-).
    rewrite nth_error_map in Hc, Hz.
    destruct (nth_error nas k) as [a|] eqn:Ea; [|discriminate Hc]. cbn in Hc, Hz. injection Hc as <-. injection Hz as Hz.
    apply C; [eapply nth_error_In; eauto | exact Hz].
  Qed.

  (* refine(max(a1 ... an)) = max of the kept arguments: same value *)
  Theorem max_rule_sound : forall nas keep vals M M',
    refine_max A nas = DList keep ->
    (forall a, In a nas -> pos_guard a = true) ->
    reals_of (map (fun a => vfin (denote rho a)) nas) = Some vals ->
    q_maxl vals = Some M -> q_maxl (map (val_at vals) keep) = Some M' -> M == M'.
  Proof using HO.
    intros nas keep vals M M' H G RV.
    destruct (rule_classes (max_class A) nas vals) as [L C]; [|exact RV|].
    - intros a z Ha V. apply (classes_ok a z (G a Ha) V).
    - exact (max_dec_sound (map (max_class A) nas) vals keep M M' H L C).
  Qed.

  Theorem min_rule_sound : forall nas keep vals M M',
    refine_min A nas = DList keep ->
    (forall a, In a nas -> pos_guard a = true) ->
    reals_of (map (fun a => vfin (denote rho a)) nas) = Some vals ->
    q_minl vals = Some M -> q_minl (map (val_at vals) keep) = Some M' -> M == M'.
  Proof using HO.
    intros nas keep vals M M' H G RV.
    destruct (rule_classes (min_class A) nas vals) as [L C]; [|exact RV|].
    - intros a z Ha V. apply (classes_ok a z (G a Ha) V).
    - exact (min_dec_sound (map (min_class A) nas) vals keep M M' H L C).
  Qed.
End Rules.
