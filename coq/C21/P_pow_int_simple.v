(* C21 obligation: integer coefficients: pow_upoly(a, n) (square-and-multiply over UIntDict::mul) is the n-fold schoolbook product for the zero polynomial with ANY exponent, and for ALL non-zero coefficient lists and ALL exponents (including 0) with n * deg a < 2^32 and n * (bit_length(deg a + 1) + bit_length(max|a_i|)) + 36 < 2^32 (then every Kronecker product formed respects the unsigned-int limits) *)
From SE Require Import Base.Prelude C21.PolyModel C21.PolySpec C21.PolyFitsZ2.
Local Open Scope Z_scope.
Theorem C21_pow_int_simple :
  (forall (p : list Z) (n : N), zfrom_vec p = [] ->
     zpow (zfrom_vec p) n = Ok (zfrom_vec (zspow p n))) /\
  (forall (p : list Z) (n : N) A,
    max_abs_coef (zfrom_vec p) = Ok A ->
    (n * degree (zfrom_vec p) < W32)%N ->
    (n * (N.size (degree (zfrom_vec p) + 1) + N.size (Z.to_N A)) + 36 < W32)%N ->
    zpow (zfrom_vec p) n = Ok (zfrom_vec (zspow p n))).
Proof. split. exact z_pow_zero_poly. exact z_pow_simple. Qed.
Print Assumptions C21_pow_int_simple.
