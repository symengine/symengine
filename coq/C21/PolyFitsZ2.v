(* C21 -- integer coefficients: simple sufficient conditions under which every product formed by
   pow_upoly(a, n) and by divides_upoly(a, b) respects the `unsigned int` limits of UIntDict::mul
   (fits_u32):
     pow:     n * deg a < 2^32  and  n * (bit_length(deg a + 1) + bit_length(max|a|)) + 36 < 2^32;
     divides: deg b < 2^32  and
              (deg b + 1) * bit_length(max|a| + 1) + bit_length(max|a|) + bit_length(max|b|) + 36 < 2^32
              (the remainders' coefficients grow by at most a factor 1 + max|a| per step). *)
From SE Require Import Base.Prelude C21.PolyModel C21.PolySpec C21.PolyList C21.PolyDict C21.PolyKron
  C21.PolyFits C21.PolyProofs.
From Coq Require Import Ring ZArithRing Lia ZifyBool ZifyNat ZifyN.
Local Open Scope Z_scope.

Local Notation zfv := (from_vec Z 0 Z.eqb).
Local Notation zsmul := (smul Z 0 Z.add Z.mul).
Local Notation zspn := (spow_nat Z 0 1 Z.add Z.mul).

Ltac zi := try exact Zth; try exact Zeqb_spec; try exact Zintegral; try exact Zone_nz;
           try exact zdivx_spec; try exact zofN; try exact 0; try exact zdivx.

Lemma Nsize_le_of_lt_pow : forall x k : N, (x < 2 ^ k)%N -> (N.size x <= k)%N.
Proof.
  intros x k H. destruct (N.le_gt_cases (N.size x) k) as [L|L]. exact L. exfalso.
  pose proof (N.size_le x) as S.
  assert (2 ^ (k + 1) <= 2 ^ N.size x)%N by (apply N.pow_le_mono_r; lia).
  rewrite N.pow_add_r in H0. change (2 ^ 1)%N with 2%N in H0.
  destruct x as [|px]. cbn in L. lia.
  cbn [N.succ_double] in S. lia.
Qed.

Lemma Zsize_le_of_lt_pow : forall (x : Z) (k : N), 0 <= x -> x < 2 ^ Z.of_N k -> (N.size (Z.to_N x) <= k)%N.
Proof.
  intros x k Hx H. apply Nsize_le_of_lt_pow. apply N2Z.inj_lt. rewrite Z2N.id, N2Z.inj_pow by lia. exact H.
Qed.

Lemma max_abs_in : forall (d : zdict) M, max_abs_coef d = Ok M -> exists kv, In kv d /\ M = Z.abs (snd kv).
Proof.
  intros [|[k0 v0] rest] M H. discriminate H. unfold max_abs_coef in H. inversion H as [HM].
  destruct (fold_max_spec ((k0, v0) :: rest) (Z.abs v0)) as [_ [_ [E|[kv [Hin E]]]]].
  - exists (k0, v0). split. left; reflexivity. cbn [snd]. exact E.
  - exists kv. split. exact Hin. exact E.
Qed.

Lemma In_coeff : forall (d : zdict) k v, sorted d -> In (k, v) d -> get_coeff Z 0 d k = v.
Proof.
  induction d as [|[k' v'] l IHl]; intros k v Sd Hin. destruct Hin.
  cbn [get_coeff]. destruct Hin as [Heq|Hin].
  - inversion Heq; subst. rewrite N.eqb_refl. reflexivity.
  - cbn [sorted] in Sd. destruct Sd as [Ab Sl]. rewrite Forall_forall in Ab.
    specialize (Ab _ Hin). cbn [fst] in Ab. replace (k' =? k)%N with false by lia. apply IHl; assumption.
Qed.

Section Bound.
  Variable p : list Z.
  Hypothesis p_ne : zfv p <> [].
  Let d : N := degree (zfv p).
  Variable A : Z.
  Hypothesis HA : max_abs_coef (zfv p) = Ok A.

  Lemma A_facts : 0 <= A /\ forall k, Z.abs (nth k p 0) <= A.
  Proof.
    destruct (max_abs_spec _ p_ne) as [A' [EA [HA0 FA]]]. rewrite HA in EA. inversion EA; subst A'.
    split. exact HA0. apply coeffs_bounded; assumption.
  Qed.

  Let LA : Z := (Z.of_N d + 1) * A.

  Lemma spow_coeff_bound : forall t k, Z.abs (nth k (zspn p t) 0) <= LA ^ Z.of_nat t.
  Proof.
    destruct A_facts as [HA0 Hp].
    assert (HLA : 0 <= LA) by (unfold LA; nia).
    induction t as [|t IH]; intro k.
    - cbn [spow_nat]. destruct k as [|[|k]]; cbn; lia.
    - cbn [spow_nat]. rewrite Nat2Z.inj_succ, Z.pow_succ_r by lia.
      pose proof (smul_bound_l p (zspn p t) A (LA ^ Z.of_nat t) (S (N.to_nat d)) HA0
                    ltac:(apply Z.pow_nonneg; exact HLA) Hp IH (coeffs_vanish p) k) as B.
      replace (Z.of_nat (S (N.to_nat d))) with (Z.of_N d + 1) in B by lia. exact B.
  Qed.

  Lemma degree_spow_le_Z : forall t, (degree (zfv (zspn p t)) <= N.of_nat t * d)%N.
  Proof.
    intro t. eapply (degree_spow_le Z 0 1 Z.add Z.mul Z.sub Z.opp Z.eqb zdivx); zi.
  Qed.

  Lemma max_abs_spow : forall t M, max_abs_coef (zfv (zspn p t)) = Ok M -> 0 <= M <= LA ^ Z.of_nat t.
  Proof.
    intros t M HM. destruct (max_abs_in _ M HM) as [[k v] [Hin EM]]. cbn [snd] in EM. subst M.
    split. lia.
    rewrite <- (In_coeff _ k v (proj1 (z_from_vec_wf (zspn p t))) Hin), z_coeff_from_vec.
    apply spow_coeff_bound.
  Qed.

  (* the simple condition implies fits_u32 for every product formed by pow *)
  Variable n : nat.
  Hypothesis Hdeg : (N.of_nat n * d < W32)%N.
  Hypothesis Hbits : (N.of_nat n * (N.size (d + 1) + N.size (Z.to_N A)) + 36 < W32)%N.

  Lemma fits_powers : forall i j, (i + j <= n)%nat ->
    fits_u32 (zfv (zspn p i)) (zfv (zspn p j)) = true.
  Proof.
    intros i j Hij. unfold fits_u32.
    destruct (max_abs_coef (zfv (zspn p i))) as [Mi| | |] eqn:Ei; try reflexivity.
    destruct (max_abs_coef (zfv (zspn p j))) as [Mj| | |] eqn:Ej; try reflexivity.
    pose proof (degree_spow_le_Z i) as Di. pose proof (degree_spow_le_Z j) as Dj.
    pose proof (max_abs_spow i Mi Ei) as Bi. pose proof (max_abs_spow j Mj Ej) as Bj.
    destruct A_facts as [HA0 _].
    set (s := (N.size (d + 1) + N.size (Z.to_N A))%N) in *.
    (* LA < 2^s *)
    assert (HLA : 0 <= LA < 2 ^ Z.of_N s).
    { unfold LA, s. rewrite N2Z.inj_add, Z.pow_add_r by lia.
      pose proof (size_pow_Z (Z.of_N d + 1) ltac:(lia)) as P1. pose proof (size_pow_Z A HA0) as P2.
      replace (Z.to_N (Z.of_N d + 1)) with (d + 1)%N in P1 by lia.
      split. apply Z.mul_nonneg_nonneg; lia. apply Z.mul_lt_mono_nonneg; lia. }
    assert (Hpow : forall t, LA ^ Z.of_nat t < 2 ^ Z.of_N (N.of_nat t * s) \/ (t = 0%nat)).
    { intro t. destruct t. right; reflexivity. left.
      rewrite N2Z.inj_mul, nat_N_Z, Z.mul_comm, Z.pow_mul_r by lia.
      apply Z.pow_lt_mono_l; lia. }
    assert (Hsz : forall t M, 0 <= M <= LA ^ Z.of_nat t -> (N.size (Z.to_N M) <= N.of_nat t * s + 1)%N).
    { intros t M HM. destruct (Hpow t) as [H|H].
      - pose proof (Zsize_le_of_lt_pow M (N.of_nat t * s) ltac:(lia) ltac:(lia)). lia.
      - subst t. change (Z.of_nat 0) with 0 in HM. rewrite Z.pow_0_r in HM.
        assert (N.size (Z.to_N M) <= 1)%N by (apply Nsize_le_of_lt_pow; lia). lia. }
    pose proof (Hsz i Mi Bi) as Si. pose proof (Hsz j Mj Bj) as Sj.
    set (di := degree (zfv (zspn p i))) in *. set (dj := degree (zfv (zspn p j))) in *.
    assert (Hd1 : ((N.of_nat i + N.of_nat j) * d <= N.of_nat n * d)%N) by (apply N.mul_le_mono_r; lia).
    assert (Hs1 : ((N.of_nat i + N.of_nat j) * s <= N.of_nat n * s)%N) by (apply N.mul_le_mono_r; lia).
    rewrite N.mul_add_distr_r in Hd1, Hs1.
    assert (Hdd : (di + dj < W32)%N) by (clear - Di Dj Hd1 Hdeg; lia).
    assert (Hmin : (N.size (N.min (di + 1) (dj + 1)) <= 32)%N).
    { apply Nsize_le_of_lt_pow. change (2 ^ 32)%N with W32. unfold W32 in *. clear - Hdd.
      destruct (N.min_spec (di + 1) (dj + 1)) as [[L E]|[L E]]; rewrite E; lia. }
    apply andb_true_intro. split; apply N.ltb_lt. exact Hdd.
    clear - Si Sj Hmin Hs1 Hbits. unfold W32 in *. lia.
  Qed.
End Bound.

Theorem zpow_fits_simple : forall (p : list Z) (n : N) A,
  max_abs_coef (zfv p) = Ok A ->
  (n * degree (zfv p) < W32)%N ->
  (n * (N.size (degree (zfv p) + 1) + N.size (Z.to_N A)) + 36 < W32)%N ->
  zpow_fits (zfv p) n = true.
Proof.
  intros p n A HA Hd Hb. unfold zpow_fits.
  assert (Hne : zfv p <> []) by (intro E; rewrite E in HA; discriminate HA).
  assert (E : pow Z 1 zgmul_chk (zfv p) n = Ok (zfv (spow Z 0 1 Z.add Z.mul p n))).
  { eapply pow_run; zi. intros i j Hij. apply zgmul_chk_ok.
    apply (fits_powers p Hne A HA (N.to_nat n)); rewrite ?N2Nat.id; assumption. }
  rewrite E. reflexivity.
Qed.

Theorem z_pow_simple : forall (p : list Z) (n : N) A,
  max_abs_coef (zfrom_vec p) = Ok A ->
  (n * degree (zfrom_vec p) < W32)%N ->
  (n * (N.size (degree (zfrom_vec p) + 1) + N.size (Z.to_N A)) + 36 < W32)%N ->
  zpow (zfrom_vec p) n = Ok (zfrom_vec (zspow p n)).
Proof. intros p n A HA Hd Hb. apply z_pow. exact (zpow_fits_simple p n A HA Hd Hb). Qed.

(* the zero polynomial: every product but 1 * 1 has an empty operand and is returned without arithmetic *)
Lemma fits_u32_nil_r : forall a : zdict, fits_u32 a [] = true.
Proof. intro a. unfold fits_u32. destruct (max_abs_coef a); reflexivity. Qed.

Theorem z_pow_zero_poly : forall (p : list Z) (n : N), zfrom_vec p = [] ->
  zpow (zfrom_vec p) n = Ok (zfrom_vec (zspow p n)).
Proof.
  intros p n E. apply z_pow. unfold zpow_fits.
  assert (H : pow Z 1 zgmul_chk (zfv p) n = Ok (zfv (spow Z 0 1 Z.add Z.mul p n))).
  { eapply pow_run; zi. intros i j _. apply zgmul_chk_ok.
    destruct i as [|i]; [destruct j as [|j]|]; cbn [spow_nat]. reflexivity.
    - rewrite z_from_vec_smul_nil_l by exact E. apply fits_u32_nil_r.
    - rewrite z_from_vec_smul_nil_l by exact E. reflexivity. }
  unfold zfrom_vec. rewrite H. reflexivity.
Qed.

Local Notation zmono := (mono Z 0).
Local Notation zssub := (ssub Z Z.add Z.opp).

Lemma nth_smul_mono_l : forall k q p j,
  nth j (zsmul (zmono k q) p) 0 = if (k <=? j)%nat then q * nth (j - k) p 0 else 0.
Proof.
  induction k as [|k IH]; intros q p j.
  - unfold mono. cbn [repeat app]. rewrite z_nth_smul_cons. cbn [smul].
    rewrite Nat.sub_0_r. cbn [Nat.leb]. destruct j; cbn [shiftc]; [|rewrite (nth_nil Z 0)]; ring.
  - unfold mono. cbn [repeat app]. fold (zmono k q). rewrite z_nth_smul_cons.
    destruct j; cbn [shiftc Nat.leb]. ring. rewrite IH. cbn [Nat.sub]. ring.
Qed.

Lemma nth_smul_mono : forall p k q j,
  nth j (zsmul p (zmono k q)) 0 = if (k <=? j)%nat then q * nth (j - k) p 0 else 0.
Proof. intros. rewrite z_smul_comm. apply nth_smul_mono_l. Qed.

Lemma zfv_mono : forall k q, q <> 0 -> zfv (zmono k q) = [(N.of_nat k, q)].
Proof. intros. eapply from_vec_mono; zi. assumption. Qed.

Section DivRun.
  Variable pa : list Z.
  Hypothesis pa_ne : zfv pa <> [].
  Variable A : Z.
  Hypothesis HA : max_abs_coef (zfv pa) = Ok A.
  Variable B0 : Z.
  Hypothesis HB0 : 0 <= B0.
  Variable db : N.
  Hypothesis Hdb : (db < W32)%N.
  Hypothesis Hbits : ((db + 1) * N.size (Z.to_N (A + 1)) + N.size (Z.to_N A) + N.size (Z.to_N B0) + 36 < W32)%N.

  Let da : N := degree (zfv pa).

  Lemma A_pos : 1 <= A /\ forall k, Z.abs (nth k pa 0) <= A.
  Proof.
    destruct (A_facts pa pa_ne A HA) as [HA0 Hp]. split; [|exact Hp].
    (* the leading coefficient is a non-zero integer *)
    pose proof (degree_top_nonzero Z 0 1 Z.add Z.mul Z.sub Z.opp Z.eqb Zth Zeqb_spec pa pa_ne) as Hl.
    unfold scoeff in Hl. specialize (Hp (N.to_nat (degree (zfv pa)))). lia.
  Qed.

  Definition bnd (dc : N) : Z := B0 * (A + 1) ^ Z.of_N (db - dc).

  Lemma bnd_mono : forall d1 d2, (d1 <= d2)%N -> bnd d2 <= bnd d1.
  Proof.
    intros d1 d2 H. unfold bnd. destruct A_pos as [HA1 _].
    apply Z.mul_le_mono_nonneg_l. exact HB0. apply Z.pow_le_mono_r; lia.
  Qed.

  Lemma bnd_step : forall d1 d2, (d1 < d2)%N -> (d2 <= db)%N -> bnd d2 * (A + 1) <= bnd d1.
  Proof.
    intros d1 d2 H Hle. unfold bnd. destruct A_pos as [HA1 _].
    rewrite <- Z.mul_assoc, (Z.mul_comm (_ ^ _)), <- Z.pow_succ_r by lia.
    apply Z.mul_le_mono_nonneg_l. exact HB0. apply Z.pow_le_mono_r; lia.
  Qed.

  Lemma bnd_nonneg : forall dc, 0 <= bnd dc.
  Proof.
    intro dc. destruct A_pos as [HA1 _]. unfold bnd.
    apply Z.mul_nonneg_nonneg. exact HB0. apply Z.pow_nonneg. lia.
  Qed.

  Lemma bnd_size : forall dc, (N.size (Z.to_N (bnd dc)) <= N.size (Z.to_N B0) + db * N.size (Z.to_N (A + 1)))%N.
  Proof.
    intro dc. destruct A_pos as [HA1 _].
    apply Zsize_le_of_lt_pow. apply bnd_nonneg.
    unfold bnd. rewrite N2Z.inj_add, N2Z.inj_mul, Z.pow_add_r by lia.
    (* B0 < 2^size B0 and (A+1)^(db-dc) <= (A+1)^db <= (2^size (A+1))^db *)
    apply Z.le_lt_trans with (B0 * 2 ^ (Z.of_N db * Z.of_N (N.size (Z.to_N (A + 1))))).
    - apply Z.mul_le_mono_nonneg_l. exact HB0.
      transitivity ((A + 1) ^ Z.of_N db). apply Z.pow_le_mono_r; lia.
      rewrite (Z.mul_comm (Z.of_N db)), Z.pow_mul_r by lia. apply Z.pow_le_mono_l.
      pose proof (size_pow_Z (A + 1) ltac:(lia)). lia.
    - apply Z.mul_lt_mono_pos_r. apply Z.pow_pos_nonneg; lia. apply size_pow_Z. exact HB0.
  Qed.

  (* the quotient of the leading coefficients is no larger than the dividend's *)
  Lemma zdivx_abs_le : forall x y q, y <> 0 -> zdivx x y = Some q -> Z.abs q <= Z.abs x.
  Proof. intros x y q Hy E. apply zdivx_spec in E; [|exact Hy]. subst x. rewrite Z.abs_mul. nia. Qed.

  (* a * q x^k respects the limits of UIntDict::mul when |q| <= bnd and deg a + k <= db *)
  Lemma fits_monomial : forall k q dc, Z.abs q <= bnd dc -> (da + k <= db)%N ->
    fits_u32 (zfv pa) [(k, q)] = true.
  Proof.
    intros k q dc Hq Hk. unfold fits_u32. rewrite HA. cbn [max_abs_coef fold_left snd].
    replace (if Z.abs q <? Z.abs q then Z.abs q else Z.abs q) with (Z.abs q)
      by (destruct (Z.abs q <? Z.abs q); reflexivity).
    change (degree [(k, q)]) with k. fold da.
    assert (Hsq : (N.size (Z.to_N (Z.abs q)) <= N.size (Z.to_N B0) + db * N.size (Z.to_N (A + 1)))%N).
    { etransitivity; [|apply (bnd_size dc)]. pose proof (bnd_nonneg dc).
      apply Zsize_le_of_lt_pow. lia. pose proof (size_pow_Z (bnd dc) ltac:(lia)). lia. }
    assert (Hmin : (N.size (N.min (da + 1) (k + 1)) <= 32)%N).
    { apply Nsize_le_of_lt_pow. change (2 ^ 32)%N with W32. unfold W32 in *.
      destruct (N.min_spec (da + 1) (k + 1)) as [[L E]|[L E]]; rewrite E; lia. }
    apply andb_true_intro. split; apply N.ltb_lt. lia. unfold W32 in *. lia.
  Qed.

  (* subtracting a * q x^k multiplies the coefficient bound by at most 1 + max|a| *)
  Lemma sub_mul_mono_bound : forall pc k q Bd, (forall j, Z.abs (nth j pc 0) <= Bd) -> Z.abs q <= Bd ->
    forall j, Z.abs (nth j (zssub pc (zsmul pa (zmono k q))) 0) <= Bd * (A + 1).
  Proof.
    intros pc k q Bd Hpc Hq j. destruct A_pos as [HA1 HpA]. unfold ssub.
    rewrite (nth_sadd Zth), (nth_sneg Zth).
    rewrite nth_smul_mono. specialize (Hpc j).
    destruct (k <=? j)%nat.
    - assert (Z.abs (q * nth (j - k) pa 0) <= Bd * A).
      { rewrite Z.abs_mul. apply Z.mul_le_mono_nonneg; try apply Z.abs_nonneg. exact Hq. apply HpA. }
      lia.
    - assert (0 <= Bd * A) by (apply Z.mul_nonneg_nonneg; lia). lia.
  Qed.

  (* the remainders of the run: degree at most db, coefficients at most bnd (degree) *)
  Definition rem_ok (pc : list Z) : Prop :=
    (degree (zfv pc) <= db)%N /\ forall k, Z.abs (nth k pc 0) <= bnd (degree (zfv pc)).

  Lemma rem_ok_step : forall pc q, rem_ok pc -> zfv pc <> [] -> (da <= degree (zfv pc))%N ->
    zdivx (get_lc Z 0 (zfv pc)) (get_lc Z 0 (zfv pa)) = Some q -> q <> 0 ->
    let M := zmono (N.to_nat (degree (zfv pc) - da)) q in
    let pc1 := zssub pc (zsmul pa M) in
    (zfv pc1 = [] \/ (degree (zfv pc1) < degree (zfv pc))%N) ->
    zgmul_chk (zfv pa) (zfv M) = Ok (zfv (zsmul pa M)) /\ rem_ok pc1.
  Proof.
    intros pc q [Hdc Hbd] Hne Hd Eq Hqn M pc1 Hdec.
    set (dc := degree (zfv pc)) in *.
    assert (Hq : Z.abs q <= bnd dc).
    { etransitivity; [|apply (Hbd (N.to_nat dc))].
      replace (nth (N.to_nat dc) pc 0) with (get_lc Z 0 (zfv pc)) by (eapply get_lc_from_vec; zi).
      eapply zdivx_abs_le; [|exact Eq].
      eapply (lc_a_nonzero Z 0 1 Z.add Z.mul Z.sub Z.opp Z.eqb Zth Zeqb_spec); exact pa_ne. }
    split.
    - apply zgmul_chk_ok. unfold zfrom_vec, M. rewrite zfv_mono, N2Nat.id by exact Hqn.
      apply (fits_monomial _ _ dc Hq). lia.
    - destruct Hdec as [E|L]; split.
      + rewrite E. cbn. lia.
      + intro j. rewrite (z_from_vec_nil_zero pc1 E j). apply bnd_nonneg.
      + lia.
      + intro j. etransitivity. apply (sub_mul_mono_bound pc _ q (bnd dc) Hbd Hq).
        apply bnd_step. exact L. exact Hdc.
  Qed.
End DivRun.

Theorem zdivides_fits_simple : forall (pa pb : list Z) A B,
  max_abs_coef (zfv pa) = Ok A -> max_abs_coef (zfv pb) = Ok B ->
  (degree (zfv pb) < W32)%N ->
  ((degree (zfv pb) + 1) * N.size (Z.to_N (A + 1)) + N.size (Z.to_N A) + N.size (Z.to_N B) + 36 < W32)%N ->
  zdivides_fits (zfv pa) (zfv pb) = true.
Proof.
  intros pa pb A B HA HB Hd Hb. unfold zdivides_fits.
  assert (Hane : zfv pa <> []) by (intro E; rewrite E in HA; discriminate HA).
  assert (Hbne : zfv pb <> []) by (intro E; rewrite E in HB; discriminate HB).
  destruct (max_abs_spec _ Hbne) as [B' [EB [HB0 FB]]]. rewrite HB in EB. inversion EB; subst B'.
  assert (Ex : exists r, divides Z 0 Z.sub Z.opp Z.eqb zdivx zgmul_chk (zfv pa) (zfv pb) = Ok r).
  { eapply divides_run with (Inv := rem_ok A B (degree (zfv pb))); zi;
      try exact zgmul_chk_sound; try exact Hane.
    - intros pc [H _]. lia.
    - exact (rem_ok_step pa Hane A HA B HB0 (degree (zfv pb)) Hd Hb).
    - split. lia. intro k. unfold bnd. rewrite N.sub_diag, Z.pow_0_r, Z.mul_1_r.
      apply coeffs_bounded; assumption. }
  destruct Ex as [r E]. rewrite E. reflexivity.
Qed.

(* divides_upoly on UIntPoly under the simple condition (zero dividend: no condition) *)
Theorem z_divides_simple : forall (pa pb : list Z) A B,
  max_abs_coef (zfrom_vec pa) = Ok A -> max_abs_coef (zfrom_vec pb) = Ok B ->
  (degree (zfrom_vec pb) < W32)%N ->
  ((degree (zfrom_vec pb) + 1) * N.size (Z.to_N (A + 1)) + N.size (Z.to_N A) + N.size (Z.to_N B) + 36 < W32)%N ->
  exists r, zdivides (zfrom_vec pa) (zfrom_vec pb) = Ok r /\
    match r with
    | Some d => exists D, d = zfrom_vec D /\ zpeq pb (zsmul pa D)
    | None => ~ exists D, zpeq pb (zsmul pa D)
    end.
Proof.
  intros pa pb A B HA HB Hd Hb.
  destruct (z_divides pa pb (zdivides_fits_simple pa pb A B HA HB Hd Hb) Hd) as [r [E S]].
  exists r. split. exact E.
  assert (Hane : zfrom_vec pa <> []) by (intro E0; rewrite E0 in HA; discriminate HA).
  destruct r as [d|]. apply S. destruct S as [S|S]. contradiction. exact S.
Qed.

Lemma zdivides_fits_zero : forall pa pb : list Z, zfv pb = [] -> zdivides_fits (zfv pa) (zfv pb) = true.
Proof.
  intros pa pb E. unfold zdivides_fits, divides. rewrite E. destruct (is_empty (zfv pa)); reflexivity.
Qed.

Theorem z_divides_complete_simple : forall (pa pb Q : list Z) A B,
  max_abs_coef (zfrom_vec pa) = Ok A -> max_abs_coef (zfrom_vec pb) = Ok B ->
  (degree (zfrom_vec pb) < W32)%N ->
  ((degree (zfrom_vec pb) + 1) * N.size (Z.to_N (A + 1)) + N.size (Z.to_N A) + N.size (Z.to_N B) + 36 < W32)%N ->
  zpeq pb (zsmul pa Q) ->
  zdivides (zfrom_vec pa) (zfrom_vec pb) = Ok (Some (zfrom_vec Q)).
Proof.
  intros pa pb Q A B HA HB Hd Hb HQ.
  assert (Hane : zfrom_vec pa <> []) by (intro E0; rewrite E0 in HA; discriminate HA).
  apply z_divides_complete; try assumption. exact (zdivides_fits_simple pa pb A B HA HB Hd Hb).
Qed.

(* the zero dividend: a | 0 for every non-zero a, with quotient 0; never for a = 0 *)
Theorem z_divides_zero : forall pa pb : list Z, zfrom_vec pb = [] ->
  zdivides (zfrom_vec pa) (zfrom_vec pb) = Ok (if is_empty (zfrom_vec pa) then None else Some []).
Proof.
  intros pa pb E. unfold zdivides, divides. rewrite E. destruct (zfrom_vec pa); reflexivity.
Qed.
