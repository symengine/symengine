(* C21: the hypotheses of the theorems are met by concrete non-trivial inputs, and the model
   computes the expected results on them (evaluated by the kernel). *)
From SE Require Import Base.Prelude C21.PolyModel C21.PolySpec C21.PolyProofs C21.PolyFitsZ2.
From Coq Require Import QArith Qcanon.
Local Open Scope Z_scope.
(* the polynomial on which the unrepaired bit budget failed: (7 + 7x + ... + 7x^6)^2 *)
Example C21_kronecker_example :
  let p := [7;7;7;7;7;7;7] in
  fits_u32 (zfrom_vec p) (zfrom_vec p) = true /\
  kmul (zfrom_vec p) (zfrom_vec p) = Ok (zfrom_vec [49;98;147;196;245;294;343;294;245;196;147;98;49]) /\
  zsmul p p = [49;98;147;196;245;294;343;294;245;196;147;98;49].
Proof. vm_compute. repeat split. Qed.
(* negative value, carries through the digits, gaps *)
Example C21_kronecker_example2 :
  let p := [255;-255;0;255] in let q := [-255;255] in
  fits_u32 (zfrom_vec p) (zfrom_vec q) = true /\
  kmul (zfrom_vec p) (zfrom_vec q) = Ok (zfrom_vec (zsmul p q)) /\ zfrom_vec (zsmul p q) <> [].
Proof. vm_compute. repeat split; discriminate. Qed.
Example C21_pow_example :
  zpow_fits (zfrom_vec [1;-1]) 5 = true /\ zpow (zfrom_vec [1;-1]) 5 = Ok (zfrom_vec [1;-5;10;-10;5;-1]) /\
  zpow_fits (zfrom_vec [1;1]) 0 = true /\ zpow (zfrom_vec []) 3 = Ok [] /\ zpow_fits (zfrom_vec []) 3 = true.
Proof. vm_compute. repeat split. Qed.
(* the division on which the unrepaired loop condition failed: x^2+x+1 divides x^3-1 *)
Example C21_divides_example :
  zdivides_fits (zfrom_vec [1;1;1]) (zfrom_vec [-1;0;0;1]) = true /\
  zdivides (zfrom_vec [1;1;1]) (zfrom_vec [-1;0;0;1]) = Ok (Some (zfrom_vec [-1;1])) /\
  zdivides_fits (zfrom_vec [0;0;0;0;0;1]) (zfrom_vec [0;1]) = true /\
  zdivides (zfrom_vec [0;0;0;0;0;1]) (zfrom_vec [0;1]) = Ok None /\
  zdivides (zfrom_vec [2]) (zfrom_vec [0;1]) = Ok None.
Proof. vm_compute. repeat split. Qed.
Example C21_rat_example :
  let h := Q2Qc (1 # 2) in
  qpow_fits (qfrom_vec [h; q1]) 2 = true /\
  qpow (qfrom_vec [h; q1]) 2 = Ok (qfrom_vec [Q2Qc (1 # 4); q1; q1]) /\
  qdivides_fits (qfrom_vec [h; q1]) (qfrom_vec [Q2Qc (1 # 4); q1; q1]) = true /\
  qdivides (qfrom_vec [h; q1]) (qfrom_vec [Q2Qc (1 # 4); q1; q1]) = Ok (Some (qfrom_vec [h; q1])).
Proof. vm_compute. repeat split. Qed.
(* the simple conditions of P_pow_int_simple / P_divides_int_simple hold on ordinary inputs *)
Example C21_simple_conditions_example :
  let p := [3;-5;0;1000000007] in let b := [-1;0;0;1] in
  max_abs_coef (zfrom_vec p) = Ok 1000000007 /\
  ((1000 * degree (zfrom_vec p) <? W32) &&
   (1000 * (N.size (degree (zfrom_vec p) + 1) + N.size (Z.to_N 1000000007)) + 36 <? W32))%N = true /\
  max_abs_coef (zfrom_vec [1;1;1]) = Ok 1 /\ max_abs_coef (zfrom_vec b) = Ok 1 /\
  ((degree (zfrom_vec b) <? W32) &&
   ((degree (zfrom_vec b) + 1) * N.size (Z.to_N (1 + 1)) + N.size (Z.to_N 1) + N.size (Z.to_N 1) + 36 <? W32))%N = true.
Proof. vm_compute. repeat split. Qed.
Print Assumptions C21_kronecker_example.
