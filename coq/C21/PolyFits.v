(* C21 -- when the exponents are the only representation limit (ODictWrapper::mul, e.g. rational
   coefficients), the runs of pow and divides_upoly stay inside it under simple conditions:
   n * deg a < 2^32 for pow(a, n), deg b < 2^32 for divides(a, b). *)
From SE Require Import Base.Prelude C21.PolyModel C21.PolySpec C21.PolyList C21.PolyDict.
From Coq Require Import Lia ZifyBool ZifyNat ZifyN.
Local Open Scope N_scope.

Section Fits.
  Variable C : Type.
  Variables (c0 c1 : C) (cadd cmul csub : C -> C -> C) (copp : C -> C).
  Variable ceqb : C -> C -> bool.
  Variable cdivx : C -> C -> option C.
  Hypothesis Crt : ring_theory c0 c1 cadd cmul csub copp eq.
  Hypothesis ceqb_spec : forall x y, ceqb x y = true <-> x = y.
  Hypothesis Cintegral : forall x y, cmul x y = c0 -> x = c0 \/ y = c0.
  Hypothesis c1_nz : c1 <> c0.
  Hypothesis cdivx_spec : forall x y q, y <> c0 -> (cdivx x y = Some q <-> x = cmul q y).

  Local Notation dict := (list (N * C)).
  Local Notation fv := (from_vec C c0 ceqb).
  Local Notation smul := (smul C c0 cadd cmul).
  Local Notation spow_nat := (spow_nat C c0 c1 cadd cmul).
  Local Notation gmul := (gmul C c0 cadd cmul ceqb).

  (* The theorems of PolyDict.v are closed over the hypotheses of its section, each over those its
     proof happens to use (with [lia] also over a spare element of C); after [eapply] of one of them,
     [gi] gives whichever of these are left open. *)
  Ltac gi := try exact Crt; try exact ceqb_spec; try exact Cintegral; try exact c1_nz;
             try exact cdivx_spec; try exact c0; try exact cdivx.

  (* ODictWrapper::mul with the exponent check made observable *)
  Definition gchk (a b : dict) : res dict :=
    if degree a + degree b <? W32 then Ok (gmul a b) else ErrExn EXN_LIMIT.

  Lemma gchk_sound : mul_sound C c0 cadd cmul ceqb gchk.
  Proof.
    intros p q r H. unfold gchk in H. destruct (degree (fv p) + degree (fv q) <? W32) eqn:F; [|discriminate H].
    inversion H; subst r. eapply gmul_correct; gi. lia.
  Qed.

  Lemma gchk_ok : forall p q, degree (fv p) + degree (fv q) < W32 -> gchk (fv p) (fv q) = Ok (fv (smul p q)).
  Proof.
    intros p q H. unfold gchk. replace (degree (fv p) + degree (fv q) <? W32) with true by lia.
    f_equal. eapply gmul_correct; gi. exact H.
  Qed.

  Lemma fv_one : fv [c1] = [(0, c1)].
  Proof. symmetry. eapply one_dict_from_vec; gi. Qed.

  Lemma degree_spow_le : forall p t, degree (fv (spow_nat p t)) <= N.of_nat t * degree (fv p).
  Proof.
    intros p t. induction t as [|t IH]; cbn [PolySpec.spow_nat].
    - rewrite fv_one. cbn. lia.
    - assert (degree (fv (smul p (spow_nat p t))) <= degree (fv p) + degree (fv (spow_nat p t)))
        by (eapply degree_smul_le; gi).
      lia.
  Qed.

  (* pow(a, n) stays inside the exponent range when n * deg a < 2^32 *)
  Theorem pow_ok : forall p n, n * degree (fv p) < W32 ->
    pow C c1 gchk (fv p) n = Ok (fv (spow C c0 c1 cadd cmul p n)).
  Proof.
    intros p n H. eapply pow_run; gi. intros i j Hij. apply gchk_ok.
    pose proof (degree_spow_le p i). pose proof (degree_spow_le p j). nia.
  Qed.

  (* divides_upoly: every product formed has the degree of the current remainder *)
  Section Div.
    Variable pa : list C.
    Hypothesis pa_ne : fv pa <> [].

    Theorem divides_ok : forall pb, degree (fv pb) < W32 ->
      exists r, divides C c0 csub copp ceqb cdivx gchk (fv pa) (fv pb) = Ok r.
    Proof.
      intros pb Hw. eapply divides_run with (Inv := fun pc => degree (fv pc) < W32); gi;
        try exact gchk_sound; try exact pa_ne; try exact Hw; try (intros pc H; exact H).
      intros pc q Hi Hne Hd Eq Hqn M pc1 Hdec. split.
      - apply gchk_ok. unfold M. erewrite from_vec_mono; gi. 2: exact Hqn.
        rewrite N2Nat.id. change (degree [(degree (fv pc) - degree (fv pa), q)]) with (degree (fv pc) - degree (fv pa)). lia.
      - destruct Hdec as [E|L]. rewrite E. reflexivity. lia.
    Qed.
  End Div.
End Fits.
