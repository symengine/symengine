(* C21 obligation: rational coefficients: pow_upoly(a, n) is the n-fold schoolbook product for ALL coefficient lists and ALL exponents n (including 0 and the zero polynomial) with n * deg a < 2^32 (the exponent type is unsigned int) *)
From SE Require Import Base.Prelude C21.PolyModel C21.PolySpec C21.PolyProofs.
From Coq Require Import QArith Qcanon.
Theorem C21_pow_rat_simple :
  forall p n, (n * degree (qfrom_vec p) < W32)%N ->
    qpow (qfrom_vec p) n = Ok (qfrom_vec (qspow p n)).
Proof. exact q_pow_simple. Qed.
Print Assumptions C21_pow_rat_simple.
