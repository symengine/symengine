(* C21 -- ring laws of mul_upoly on URatPoly as representations (same argument as PolyRing.v;
   the only limit is the 32-bit exponent type). *)
From SE Require Import Base.Prelude C21.PolyModel C21.PolySpec C21.PolyList C21.PolyDict C21.PolyProofs.
From Coq Require Import QArith Qcanon.
Local Open Scope N_scope.

Theorem q_mul_comm_structural : forall a b,
  qwf a -> qwf b -> degree a + degree b < W32 -> qimul a b = qimul b a.
Proof.
  intros a b Wa Wb F.
  eapply mul_comm_structural with (ok := fun a b => degree a + degree b < W32);
    try exact Qcrt; try exact qeqb_spec; try exact q_mul_upoly; try assumption.
  cbv beta. rewrite N.add_comm. exact F.
Qed.

Theorem q_mul_assoc_structural : forall a b c ab bc,
  qwf a -> qwf b -> qwf c ->
  degree a + degree b < W32 -> degree b + degree c < W32 ->
  qimul a b = Ok ab -> qimul b c = Ok bc ->
  degree ab + degree c < W32 -> degree a + degree bc < W32 ->
  qimul ab c = qimul a bc.
Proof.
  intros a b c ab bc.
  eapply mul_assoc_structural with (ok := fun a b => degree a + degree b < W32);
    try exact Qcrt; try exact qeqb_spec; exact q_mul_upoly.
Qed.
