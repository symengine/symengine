(* C21 obligation: rational coefficients: for ALL coefficient lists with deg b < 2^32, divides_upoly(a, b) terminates, answers true with quotient d exactly when b = a * d (never for a = 0) and false exactly when no such polynomial exists; an exact quotient Q is the one returned *)
From SE Require Import Base.Prelude C21.PolyModel C21.PolySpec C21.PolyProofs.
From Coq Require Import QArith Qcanon.
Theorem C21_divides_rat_simple :
  (forall pa pb, (degree (qfrom_vec pb) < W32)%N ->
    exists r, qdivides (qfrom_vec pa) (qfrom_vec pb) = Ok r /\
      match r with
      | Some d => qfrom_vec pa <> [] /\ exists D, d = qfrom_vec D /\ qpeq pb (qsmul pa D)
      | None => qfrom_vec pa = [] \/ ~ exists D, qpeq pb (qsmul pa D)
      end) /\
  (forall pa pb Q, (degree (qfrom_vec pb) < W32)%N ->
    qfrom_vec pa <> [] -> qpeq pb (qsmul pa Q) ->
    qdivides (qfrom_vec pa) (qfrom_vec pb) = Ok (Some (qfrom_vec Q))).
Proof. split. exact q_divides_simple. exact q_divides_complete_simple. Qed.
Print Assumptions C21_divides_rat_simple.
