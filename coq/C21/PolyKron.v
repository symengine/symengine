(* C21 -- UIntDict::mul (Kronecker substitution) is the schoolbook product. *)
From SE Require Import Base.Prelude C21.PolyModel C21.PolySpec C21.PolyList C21.PolyDict.
From Coq Require Import Ring ZArithRing Lia ZifyBool ZifyNat ZifyN.
Local Open Scope Z_scope.

Lemma Zeqb_spec : forall x y : Z, Z.eqb x y = true <-> x = y.
Proof. intros. apply Z.eqb_eq. Qed.

Local Notation zfv := (from_vec Z 0 Z.eqb).
Local Notation zfva := (from_vec_aux Z 0 Z.eqb).
Local Notation zcf := (get_coeff Z 0).

Lemma mul_small_zero : forall f d, 0 < f -> Z.abs (f * d) < f -> d = 0.
Proof. intros f d Hf H. nia. Qed.

(* a digit x with |x| < full/2 and the rest W of the value are read off s mod full and s / full *)
Lemma signed_digit : forall full half s carry x W,
  0 < half -> full = 2 * half -> 0 <= s -> 0 <= carry <= 1 -> Z.abs x < half ->
  s + carry = x + full * W ->
  if s mod full <? half
  then x = s mod full + carry /\ W = s / full
  else x = s mod full - full + carry /\ W = s / full + 1.
Proof.
  intros full half s carry x W Hh Hf Hs Hc Hx E.
  pose proof (Z.div_mod s full ltac:(lia)) as Hdm.
  pose proof (Z.mod_pos_bound s full ltac:(lia)) as Hm.
  destruct (Z.ltb_spec (s mod full) half) as [Et|Et].
  - assert (W - s / full = 0); [|lia].
    apply (mul_small_zero full). lia.
    replace (full * (W - s / full)) with (s mod full + carry - x) by lia. lia.
  - assert (W - s / full - 1 = 0); [|lia].
    apply (mul_small_zero full). lia.
    replace (full * (W - s / full - 1)) with (s mod full - full + carry - x) by lia. lia.
Qed.

(* a list of digits of absolute value below half of the base that evaluates to 0 is all zeros *)
Lemma seval_zero_digits : forall (c : list Z) full half,
  0 < half -> full = 2 * half -> Forall (fun x => Z.abs x < half) c ->
  seval Z 0 Z.add Z.mul c full = 0 -> Forall (fun x => x = 0) c.
Proof.
  induction c as [|x c IH]; intros full half Hh Hf F E. constructor.
  inversion F as [|? ? Fx Fc]; subst. cbn [seval] in E.
  assert (x = 0).
  { assert (Z.abs (2 * half * (- seval Z 0 Z.add Z.mul c (2 * half))) < 2 * half)
      by (replace (2 * half * (- seval Z 0 Z.add Z.mul c (2 * half))) with x by lia; lia).
    apply mul_small_zero in H; lia. }
  subst x. constructor. reflexivity. eapply IH; eauto. nia.
Qed.

Lemma from_vec_aux_zeros : forall (c : list Z) i, Forall (fun x => x = 0) c -> zfva i c = [].
Proof.
  induction c as [|x c IH]; intros i F; cbn [from_vec_aux]. reflexivity.
  inversion F; subst. cbn. apply IH. assumption.
Qed.

Lemma set_term_append : forall (r : zdict) k v,
  Forall (fun kv => (fst kv < k)%N) r -> set_term r k v = r ++ [(k, v)].
Proof.
  induction r as [|[k' v'] r IH]; intros k v F; cbn [set_term app]. reflexivity.
  inversion F; subst. cbn [fst] in *. replace (k' <? k)%N with true by lia.
  rewrite IH by assumption. reflexivity.
Qed.

(* one iteration of the digit loop appends the digit, if it is not zero *)
Lemma snoc_digit : forall (r : zdict) deg v l, Forall (fun kv => (fst kv < deg)%N) r ->
  let r' := if v =? 0 then r else set_term r deg v in
  r' ++ zfva (deg + 1) l = r ++ zfva deg (v :: l) /\ Forall (fun kv => (fst kv < deg + 1)%N) r'.
Proof.
  intros r deg v l Hr. cbn [from_vec_aux]. unfold cnz.
  assert (Hr' : Forall (fun kv => (fst kv < deg + 1)%N) r).
  { eapply Forall_impl; [|exact Hr]. cbn. lia. }
  destruct (v =? 0); cbn [negb]. split; [reflexivity | exact Hr'].
  rewrite set_term_append by exact Hr. rewrite <- app_assoc. split. reflexivity.
  apply Forall_app. split. exact Hr'. constructor. cbn. lia. constructor.
Qed.

Lemma decode_done : forall fuel n full thresh mask sgn deg r,
  decode fuel n full thresh mask sgn 0 0 deg r = Ok r.
Proof. destruct fuel; reflexivity. Qed.

Lemma uadd_small : forall x y, (x + y < W32)%N -> uadd x y = (x + y)%N.
Proof. intros. unfold uadd. apply N.mod_small. assumption. Qed.

(* the fuel of the digit loop: the value has at most fuel - 2 bits; a last carry needs one more turn *)
Definition fuel_ok (fuel : nat) (s carry : Z) : Prop :=
  s < 2 ^ (Z.of_nat fuel - 2) \/ (s = 0 /\ (carry = 0 \/ (1 <= fuel)%nat)).

Lemma fuel_ok_step : forall f full s carry carry',
  2 <= full -> 0 <= s -> fuel_ok (S f) s carry -> (s = 0 -> carry' = 0) ->
  fuel_ok f (s / full) carry'.
Proof.
  intros f full s carry carry' Hf Hs [H|[H _]] Hc.
  - destruct (Z.eq_dec s 0) as [->|Hn].
    + right. rewrite Z.div_0_l by lia. auto.
    + left. destruct (Z.le_gt_cases 2 (Z.of_nat f)) as [L|L].
      * replace (Z.of_nat (S f) - 2) with (Z.succ (Z.of_nat f - 2)) in H by lia.
        rewrite Z.pow_succ_r in H by lia.
        apply Z.div_lt_upper_bound. lia.
        pose proof (Z.pow_pos_nonneg 2 (Z.of_nat f - 2)). nia.
      * exfalso. assert (2 ^ (Z.of_nat (S f) - 2) <= 1); [|lia].
        destruct f as [|[|f]]; [easy | easy | lia].
  - subst s. right. rewrite Z.div_0_l by lia. auto.
Qed.

Lemma deg_room : forall deg (l : nat), (deg + N.of_nat (S (S l)) <= W32)%N ->
  (deg + 1 < W32)%N /\ (deg + 1 + N.of_nat (S l) <= W32)%N.
Proof. intros. lia. Qed.

Lemma decode_correct : forall (n : N) full half, (0 < n)%N ->
  full = 2 ^ Z.of_N n -> half = 2 ^ (Z.of_N n - 1) ->
  forall (c : list Z) fuel sgn s carry deg (r : zdict),
  Forall (fun x => Z.abs x < half) c ->
  0 <= s -> 0 <= carry <= 1 ->
  s + carry = seval Z 0 Z.add Z.mul c full ->
  fuel_ok fuel s carry ->
  (deg + N.of_nat (length c) <= W32)%N ->
  Forall (fun kv => (fst kv < deg)%N) r ->
  decode fuel n full half (full - 1) sgn s carry deg r
  = Ok (r ++ zfva deg (map (Z.mul sgn) c)).
Proof.
  intros n full half Hn Efull Ehalf.
  assert (Hhalf : 0 < half) by (subst half; apply Z.pow_pos_nonneg; lia).
  assert (Hfull : full = 2 * half).
  { subst full half. rewrite <- Z.pow_succ_r by lia. f_equal. lia. }
  assert (Hmask : forall s, Z.land s (full - 1) = s mod full).
  { intro s. subst full. rewrite Z.sub_1_r, <- Z.ones_equiv. apply Z.land_ones. lia. }
  assert (Hshift : forall s, Z.shiftr s (Z.of_N n) = s / full).
  { intro s. subst full. apply Z.shiftr_div_pow2. lia. }
  clear Efull Ehalf.
  induction c as [|x c IH]; intros fuel sgn s carry deg r F Hs Hc E Hfuel Hdeg Hr.
  - cbn [seval] in E. replace s with 0 by (clear - E Hs Hc; lia). replace carry with 0 by (clear - E Hs Hc; lia).
    cbn [map from_vec_aux]. rewrite app_nil_r. apply decode_done.
  - destruct (Z.eq_dec (s + carry) 0) as [Ez|Ez].
    + (* value 0: the remaining digits are all zero *)
      replace s with 0 in * by (clear - Ez Hs Hc; lia). replace carry with 0 in * by (clear - Ez Hs Hc; lia).
      rewrite decode_done, from_vec_aux_zeros, app_nil_r. reflexivity.
      apply Forall_map. eapply Forall_impl; [|exact (seval_zero_digits _ _ _ Hhalf Hfull F (eq_sym E))].
      cbn. clear; lia.
    + destruct fuel as [|f].
      { exfalso. destruct Hfuel as [H|H]; [rewrite Z.pow_neg_r in H by (clear; lia)|]; clear - H Hs Ez; lia. }
      cbn [decode]. replace ((s =? 0) && (carry =? 0)) with false by (clear - Ez Hs Hc; lia).
      rewrite Hmask, Hshift.
      inversion F as [|? ? Fx Fc]; subst. cbn [seval] in E.
      pose proof (signed_digit _ _ s carry x _ Hhalf eq_refl Hs Hc Fx E) as D.
      destruct (snoc_digit r deg (sgn * x) (map (Z.mul sgn) c) Hr) as [Eout Hr'].
      cbn [map]. rewrite <- Eout. clear Eout.
      (* the rest of the loop, whatever the carry *)
      assert (Hrec : forall carry', 0 <= carry' <= 1 -> (s = 0 -> carry' = 0) ->
                s / (2 * half) + carry' = seval Z 0 Z.add Z.mul c (2 * half) ->
                decode f n (2 * half) half (2 * half - 1) sgn (s / (2 * half)) carry' (uadd deg 1)
                       (if sgn * x =? 0 then r else set_term r deg (sgn * x))
                = Ok ((if sgn * x =? 0 then r else set_term r deg (sgn * x))
                      ++ zfva (deg + 1) (map (Z.mul sgn) c))).
      { intros carry' Hc' Hc0 EW. pose proof (Z.div_pos s (2 * half) Hs ltac:(clear - Hhalf; lia)) as Hq.
        destruct c as [|y c'].
        - cbn [seval] in EW. replace (s / (2 * half)) with 0 by (clear - EW Hq Hc'; lia).
          replace carry' with 0 by (clear - EW Hq Hc'; lia).
          rewrite decode_done, app_nil_r. reflexivity.
        - destruct (deg_room _ _ Hdeg) as [Hd1 Hd2]. rewrite uadd_small by exact Hd1.
          apply IH; try assumption.
          eapply fuel_ok_step; eauto. clear - Hhalf; lia. }
      destruct (s mod (2 * half) <? half) eqn:Et; destruct D as [Dx DW]; rewrite <- Dx.
      * apply Hrec; clear - DW; lia.
      * apply Hrec. clear; lia. intros ->. rewrite Z.mod_0_l in Et by (clear - Hhalf; lia). clear - Et Hhalf; lia.
        clear - DW; lia.
Qed.

Local Notation zsmul := (smul Z 0 Z.add Z.mul).
Local Notation zseval := (seval Z 0 Z.add Z.mul).
Local Notation zpeq := (@peq Z 0).

(* the hypotheses (and unused operations) of PolyDict's section that [eapply] leaves open at Z *)
Ltac zinst := eauto using Zth, Zeqb_spec;
  try exact Z.of_N; try exact 1; try exact Z.add; try exact Z.opp.

Lemma z_from_vec_wf : forall p, wf Z 0 (zfv p).
Proof. intros; eapply from_vec_wf; zinst. Qed.
Lemma z_coeff_from_vec : forall p k, zcf (zfv p) k = nth (N.to_nat k) p 0.
Proof. intros; eapply coeff_from_vec; zinst. Qed.
Lemma z_from_vec_peq : forall p q, zpeq p q -> zfv p = zfv q.
Proof. intros; eapply from_vec_peq; zinst. Qed.
Lemma z_from_vec_dense : forall d, wf Z 0 d -> zfv (dense Z 0 d) = d.
Proof. intros; eapply from_vec_dense; zinst. Qed.
Lemma z_nth_dense : forall d k, sorted d -> nth k (dense Z 0 d) 0 = zcf d (N.of_nat k).
Proof. intros; eapply nth_dense; zinst. Qed.
Lemma z_keys_le_degree : forall d : zdict, sorted d -> Forall (fun kv => (fst kv <= degree d)%N) d.
Proof. intros; eapply keys_le_degree; zinst. Qed.
Lemma z_from_vec_nil_zero : forall p, zfv p = [] -> forall k, nth k p 0 = 0.
Proof. intros; eapply from_vec_nil_zero; zinst. Qed.
Lemma z_poly_eval_correct : forall p x, poly_eval Z 0 1 Z.add Z.mul (zfv p) x = zseval p x.
Proof. intros; eapply poly_eval_correct; zinst. Qed.
Lemma z_gmul_correct : forall p q, (degree (zfv p) + degree (zfv q) < W32)%N ->
  zgmul (zfv p) (zfv q) = zfv (zsmul p q).
Proof. intros; eapply gmul_correct; zinst. Qed.
Lemma z_smul_comm : forall p q k, nth k (zsmul p q) 0 = nth k (zsmul q p) 0.
Proof. intros; eapply smul_comm; zinst. Qed.
Lemma z_nth_smul_cons : forall a p q k,
  nth k (zsmul (a :: p) q) 0 = a * nth k q 0 + shiftc Z 0 (zsmul p q) k.
Proof. intros; eapply nth_smul_cons; zinst. Qed.
Lemma z_from_vec_smul_nil_l : forall p q, zfv p = [] -> zfv (zsmul p q) = [].
Proof. intros; eapply from_vec_smul_nil_l; zinst. Qed.
Lemma z_from_vec_smul_nil_r : forall p q, zfv q = [] -> zfv (zsmul p q) = [].
Proof. intros; eapply from_vec_smul_nil_r; zinst. Qed.
Lemma z_cpow_succ : forall x n, cpow Z 1 Z.mul x (N.succ n) = x * cpow Z 1 Z.mul x n.
Proof. intros; eapply cpow_succ; zinst. Qed.

Lemma z_cpow : forall x n, cpow Z 1 Z.mul x n = x ^ Z.of_N n.
Proof.
  intros x n. induction n as [|n IH] using N.peano_ind. reflexivity.
  rewrite z_cpow_succ, IH, N2Z.inj_succ, Z.pow_succ_r by lia. reflexivity.
Qed.

(* r << (n * g), the product taken in 64 bits, is r * (2^n)^g for 32-bit n and g *)
Lemma shiftl_umul64 : forall r n g, (n < W32)%N -> (g < W32)%N ->
  Z.shiftl r (Z.of_N (umul64 n g)) = r * cpow Z 1 Z.mul (2 ^ Z.of_N n) g.
Proof.
  intros r n g Hn Hg.
  assert (Hu : umul64 n g = (n * g)%N).
  { unfold umul64. apply N.mod_small. unfold W32, W64 in *. nia. }
  rewrite Hu, z_cpow, Z.shiftl_mul_pow2 by lia.
  rewrite N2Z.inj_mul, Z.pow_mul_r by lia. reflexivity.
Qed.

Lemma evb_step_eq : forall n st kv, (n < W32)%N -> (snd st < W32)%N ->
  evb_step n st kv = eval_step Z 1 Z.add Z.mul (2 ^ Z.of_N n) st kv.
Proof.
  intros n [r last] [k v] Hn Hl. unfold evb_step, eval_step. cbn [fst snd] in *.
  f_equal. rewrite shiftl_umul64 by lia. ring.
Qed.

Lemma evb_fold_eq : forall n l st, (n < W32)%N -> (snd st < W32)%N ->
  Forall (fun kv : N * Z => (fst kv < W32)%N) l ->
  fold_left (evb_step n) l st = fold_left (eval_step Z 1 Z.add Z.mul (2 ^ Z.of_N n)) l st
  /\ (snd (fold_left (evb_step n) l st) < W32)%N.
Proof.
  intros n. induction l as [|kv l IH]; intros st Hn Hl F; cbn [fold_left].
  - split. reflexivity. exact Hl.
  - inversion F; subst. rewrite evb_step_eq by assumption.
    apply IH. assumption. unfold eval_step. cbn [snd]. assumption. assumption.
Qed.

Lemma eval_bit_correct : forall p n, zfv p <> [] -> (n < W32)%N -> (degree (zfv p) < W32)%N ->
  eval_bit (zfv p) n = Ok (zseval p (2 ^ Z.of_N n)).
Proof.
  intros p n Hne Hn Hd. rewrite <- z_poly_eval_correct.
  destruct (z_from_vec_wf p) as [Sp _]. pose proof (z_keys_le_degree _ Sp) as K.
  unfold eval_bit, poly_eval. set (d := zfv p) in *.
  destruct (rev d) as [|[k0 v0] l] eqn:E.
  { exfalso. apply Hne. rewrite <- (rev_involutive d), E. reflexivity. }
  rewrite <- E.
  assert (Hk0 : (k0 < W32)%N).
  { assert (degree d = k0) by (unfold degree; rewrite E; reflexivity). lia. }
  assert (F : Forall (fun kv : N * Z => (fst kv < W32)%N) (rev d)).
  { apply Forall_forall. intros kv Hin. apply in_rev in Hin. rewrite Forall_forall in K.
    specialize (K kv Hin). cbn in K. lia. }
  destruct (evb_fold_eq n (rev d) (0, k0) Hn Hk0 F) as [Efold Hlast].
  rewrite Efold in *. f_equal.
  set (st := fold_left (eval_step Z 1 Z.add Z.mul (2 ^ Z.of_N n)) (rev d) (0, k0)) in *.
  apply shiftl_umul64; assumption.
Qed.

(* the running maximum bounds every entry and is the start value or attained by an entry *)
Lemma fold_max_spec : forall (d : zdict) cur,
  let r := fold_left (fun cur kv => if cur <? Z.abs (snd kv) then Z.abs (snd kv) else cur) d cur in
  cur <= r /\ Forall (fun kv => Z.abs (snd kv) <= r) d /\
  (r = cur \/ exists kv, In kv d /\ r = Z.abs (snd kv)).
Proof.
  induction d as [|[k v] d IH]; intros cur; cbn [fold_left snd].
  - split. lia. split. constructor. left; reflexivity.
  - destruct (IH (if cur <? Z.abs v then Z.abs v else cur)) as [H1 [H2 H3]].
    split. destruct (cur <? Z.abs v) eqn:E; lia.
    split. constructor; [|exact H2]. cbn [snd]. destruct (cur <? Z.abs v) eqn:E; lia.
    destruct H3 as [H3|[kv [Hin H3]]].
    + destruct (cur <? Z.abs v); [|left; exact H3].
      right. exists (k, v). split. left; reflexivity. exact H3.
    + right. exists kv. split. right; exact Hin. exact H3.
Qed.

Lemma max_abs_spec : forall d : zdict, d <> [] ->
  exists A, max_abs_coef d = Ok A /\ 0 <= A /\ Forall (fun kv => Z.abs (snd kv) <= A) d.
Proof.
  intros [|[k v] d] H. congruence. unfold max_abs_coef.
  destruct (fold_max_spec ((k, v) :: d) (Z.abs v)) as [H1 [H2 _]].
  eexists. split. reflexivity. split. lia. exact H2.
Qed.

Lemma smul_bound_l : forall p q A B (m : nat),
  0 <= A -> 0 <= B ->
  (forall k, Z.abs (nth k p 0) <= A) -> (forall k, Z.abs (nth k q 0) <= B) ->
  (forall k, (m <= k)%nat -> nth k p 0 = 0) ->
  forall k, Z.abs (nth k (zsmul p q) 0) <= Z.of_nat m * A * B.
Proof.
  induction p as [|a p IH]; intros q A B m HA HB Hp Hq Hm k.
  - cbn [smul]. destruct k; cbn [nth]; nia.
  - destruct m as [|m].
    + rewrite (nth_smul_zero_l Zth). cbn. lia. intro j. apply Hm. lia.
    + rewrite z_nth_smul_cons.
      assert (Ha : Z.abs a <= A) by (apply (Hp O)).
      assert (Hqk : Z.abs (nth k q 0) <= B) by apply Hq.
      assert (Hsh : Z.abs (shiftc Z 0 (zsmul p q) k) <= Z.of_nat m * A * B).
      { destruct k; cbn [shiftc]. cbn. nia.
        apply IH; try assumption. intro j. apply (Hp (S j)). intros j Hj. apply (Hm (S j)). lia. }
      assert (Z.abs (a * nth k q 0) <= A * B) by (rewrite Z.abs_mul; nia).
      rewrite Nat2Z.inj_succ. lia.
Qed.

(* coefficients of from_vec p are bounded by max_abs_coef and vanish above the degree *)
Lemma coeffs_bounded : forall p A, Forall (fun kv => Z.abs (snd kv) <= A) (zfv p) -> 0 <= A ->
  forall k, Z.abs (nth k p 0) <= A.
Proof.
  intros p A F HA k. pose proof (z_coeff_from_vec p (N.of_nat k)) as E. rewrite Nat2N.id in E.
  rewrite <- E. clear E. induction (zfv p) as [|[k' v'] d IH]; cbn [get_coeff]. cbn. lia.
  inversion F; subst. destruct (k' =? N.of_nat k)%N. assumption. apply IH. assumption.
Qed.

Lemma coeffs_vanish : forall p k, (S (N.to_nat (degree (zfv p))) <= k)%nat -> nth k p 0 = 0.
Proof. intros p k H. eapply cf_above_degree; zinst. Qed.

Lemma degree_smul_le : forall p q,
  (degree (zfv (zsmul p q)) <= degree (zfv p) + degree (zfv q))%N.
Proof. intros; eapply degree_smul_le; zinst. Qed.

(* the product's coefficients: at most min(deg p, deg q) + 1 summands, each at most A * B *)
Lemma smul_coeff_bound : forall p q A B, 0 <= A -> 0 <= B ->
  Forall (fun kv => Z.abs (snd kv) <= A) (zfv p) -> Forall (fun kv => Z.abs (snd kv) <= B) (zfv q) ->
  forall k, Z.abs (nth k (zsmul p q) 0)
            <= Z.of_N (N.min (degree (zfv p) + 1) (degree (zfv q) + 1)) * A * B.
Proof.
  intros p q A B HA HB FA FB k.
  pose proof (smul_bound_l p q A B _ HA HB (coeffs_bounded p A FA HA) (coeffs_bounded q B FB HB)
                (coeffs_vanish p) k) as B1.
  pose proof (smul_bound_l q p B A _ HB HA (coeffs_bounded q B FB HB) (coeffs_bounded p A FA HA)
                (coeffs_vanish q) k) as B2.
  rewrite <- z_smul_comm in B2.
  destruct (N.min_spec (degree (zfv p) + 1) (degree (zfv q) + 1)) as [[_ E]|[_ E]]; rewrite E; lia.
Qed.

Lemma length_dense : forall d : zdict, (N.of_nat (length (dense Z 0%Z d)) <= degree d + 1)%N.
Proof.
  intros [|kv d]. cbn. lia. unfold dense. rewrite map_length, seq_length. lia.
Qed.

Lemma size_pow_Z : forall a : Z, 0 <= a -> a < 2 ^ Z.of_N (N.size (Z.to_N a)).
Proof.
  intros a Ha. pose proof (N.size_gt (Z.to_N a)) as H. apply N2Z.inj_lt in H.
  rewrite N2Z.inj_pow, Z2N.id in H by lia. exact H.
Qed.

(* a value below M * A * B fits the bit budget of the three factors *)
Lemma lt_pow_budget : forall v M A B sm sA sB,
  0 <= sm -> 0 <= sA -> 0 <= sB -> 0 <= M -> 0 <= A -> 0 <= B ->
  v <= M * A * B -> M <= 2 ^ sm -> A < 2 ^ sA -> B < 2 ^ sB -> v < 2 ^ (sm + sA + sB).
Proof.
  intros v M A B sm sA sB Hsm HsA HsB HM HA HB Hv PM PA PB.
  rewrite !Z.pow_add_r by lia.
  assert (A * B < 2 ^ sA * 2 ^ sB) by nia.
  assert (M * A * B <= 2 ^ sm * (A * B)) by nia.
  assert (0 < 2 ^ sm) by (apply Z.pow_pos_nonneg; lia).
  nia.
Qed.

Lemma kron_bits_spec : forall (a b : zdict) A B,
  (degree a + degree b < W32)%N ->
  (N.size (N.min (degree a + 1) (degree b + 1)) + N.size (Z.to_N A) + N.size (Z.to_N B) + 1 < W32)%N ->
  exists sm : N,
    kron_bits a b A B = (sm + N.size (Z.to_N A) + N.size (Z.to_N B) + 1)%N /\
    Z.of_N (N.min (degree a + 1) (degree b + 1)) <= 2 ^ Z.of_N sm /\
    (sm + N.size (Z.to_N A) + N.size (Z.to_N B) + 1 < W32)%N.
Proof.
  intros a b A B Hd Hs. unfold kron_bits, bit_length.
  set (da := degree a) in *. set (db := degree b) in *.
  set (sA := N.size (Z.to_N A)) in *. set (sB := N.size (Z.to_N B)) in *.
  exists (N.size (N.min (uadd da 1) (uadd db 1))).
  assert (Hcase : (N.size (N.min (uadd da 1) (uadd db 1)) <= N.size (N.min (da + 1) (db + 1)))%N
                  /\ Z.of_N (N.min (da + 1) (db + 1)) <= 2 ^ Z.of_N (N.size (N.min (uadd da 1) (uadd db 1)))).
  { destruct (N.lt_ge_cases (da + 1) W32) as [La|La]; destruct (N.lt_ge_cases (db + 1) W32) as [Lb|Lb].
    - rewrite !uadd_small by assumption. split. lia.
      pose proof (N.size_gt (N.min (da + 1) (db + 1))) as H. apply N2Z.inj_lt in H.
      rewrite N2Z.inj_pow in H. change (Z.of_N 2) with 2 in H. lia.
    - assert (db + 1 = W32)%N by lia. assert (da = 0)%N by lia.
      unfold uadd at 2. rewrite H, N.mod_same by (unfold W32; lia).
      rewrite N.min_0_r. cbn [N.size Z.of_N]. split. lia.
      rewrite H0. change (0 + 1)%N with 1%N. rewrite N.min_l by lia. cbn. lia.
    - assert (da + 1 = W32)%N by lia. assert (db = 0)%N by lia.
      unfold uadd at 1. rewrite H, N.mod_same by (unfold W32; lia).
      rewrite N.min_0_l. cbn [N.size Z.of_N]. split. lia.
      rewrite H0. change (0 + 1)%N with 1%N. rewrite N.min_r by lia. cbn. lia.
    - exfalso. lia. }
  destruct Hcase as [H1 H2].
  set (sm := N.size (N.min (uadd da 1) (uadd db 1))) in *.
  split; [|split; [exact H2 | lia]].
  rewrite (uadd_small sm sA) by lia. rewrite (uadd_small (sm + sA) sB) by lia.
  rewrite uadd_small by lia. reflexivity.
Qed.

Lemma zfv_nonempty_cases : forall p, zfv p = [] \/ zfv p <> [].
Proof. intro p. destruct (zfv p). left; reflexivity. right; discriminate. Qed.

Lemma is_empty_false : forall d : zdict, d <> [] -> is_empty d = false.
Proof. intros [|kv d] H. congruence. reflexivity. Qed.

Theorem kmul_correct : forall p q : list Z,
  fits_u32 (zfv p) (zfv q) = true ->
  kmul (zfv p) (zfv q) = Ok (zfv (zsmul p q)).
Proof.
  intros p q Hfits. unfold kmul.
  destruct (zfv_nonempty_cases p) as [Ea|Na].
  { rewrite z_from_vec_smul_nil_l, Ea by exact Ea. reflexivity. }
  rewrite (is_empty_false _ Na).
  destruct (zfv_nonempty_cases q) as [Eb|Nb].
  { rewrite z_from_vec_smul_nil_r, Eb by exact Eb. reflexivity. }
  rewrite (is_empty_false _ Nb).
  destruct (max_abs_spec _ Na) as [A [EA [HA FA]]].
  destruct (max_abs_spec _ Nb) as [B [EB [HB FB]]].
  unfold fits_u32 in Hfits. rewrite EA, EB in Hfits. rewrite EA, EB. cbn [bind].
  apply andb_prop in Hfits. destruct Hfits as [Hd Hs].
  apply N.ltb_lt in Hd. apply N.ltb_lt in Hs.
  destruct (kron_bits_spec (zfv p) (zfv q) A B Hd Hs) as [sm [En [HM Hnw]]].
  set (n := kron_bits (zfv p) (zfv q) A B) in *.
  assert (Hn0 : (0 < n)%N) by (clear - En; lia).
  rewrite !eval_bit_correct by (try assumption; clear - Hd Hnw En; lia). cbn [bind].
  (* p(X) * q(X) = (p * q)(X) at X = 2^n; n is chosen so that the coefficients of p * q are signed
     digits in base X, which decode reads back off that number *)
  rewrite <- (seval_smul Zth), Z.shiftl_1_l.
  set (X := 2 ^ Z.of_N n).
  replace (X / 2) with (2 ^ (Z.of_N n - 1)).
  2:{ unfold X. replace (Z.of_N n) with (Z.succ (Z.of_N n - 1)) at 2 by (clear; lia).
      rewrite Z.pow_succ_r, Z.mul_comm, Z.div_mul by (clear - Hn0; lia). reflexivity. }
  (* a coefficient list of the product without trailing zeros *)
  set (c := dense Z 0 (zfv (zsmul p q))).
  assert (Hc : zpeq c (zsmul p q)).
  { intro k. unfold c. rewrite z_nth_dense by apply z_from_vec_wf.
    rewrite z_coeff_from_vec, Nat2N.id. reflexivity. }
  rewrite <- (seval_peq Zth c (zsmul p q) X Hc), <- (z_from_vec_peq c (zsmul p q) Hc).
  assert (Hlen : (0 + N.of_nat (length c) <= W32)%N).
  { pose proof (length_dense (zfv (zsmul p q))) as L1. pose proof (degree_smul_le p q) as L2. fold c in L1.
    clear - L1 L2 Hd. lia. }
  (* every coefficient is below 2^(n-1) *)
  assert (Hbound : forall x, In x c -> Z.abs x < 2 ^ (Z.of_N n - 1)).
  { intros x Hx. destruct (In_nth c x 0 Hx) as [k [_ <-]]. rewrite (Hc k).
    replace (Z.of_N n - 1) with (Z.of_N sm + Z.of_N (N.size (Z.to_N A)) + Z.of_N (N.size (Z.to_N B)))
      by (clear - En; lia).
    eapply lt_pow_budget; try apply smul_coeff_bound; try apply size_pow_Z; try eassumption; clear; lia. }
  (* the digits of |S0| are the coefficients times the sign of S0 *)
  set (S0 := zseval c X).
  set (sgn := if S0 <? 0 then -1 else 1).
  assert (Hsgn : sgn * sgn = 1 /\ Z.abs S0 = sgn * S0)
    by (unfold sgn; clear; destruct (Z.ltb_spec S0 0); lia).
  rewrite (decode_correct n X _ Hn0 eq_refl eq_refl (map (Z.mul sgn) c)).
  - cbn [app]. rewrite map_map.
    replace (map (fun x => sgn * (sgn * x)) c) with c. reflexivity.
    rewrite <- (map_id c) at 1. apply map_ext. intro x. rewrite Z.mul_assoc, (proj1 Hsgn). lia.
  - apply Forall_map, Forall_forall. intros x Hx. rewrite Z.abs_mul. specialize (Hbound x Hx).
    clear - Hbound Hsgn. nia.
  - apply Z.abs_nonneg.
  - clear; lia.
  - change (map (Z.mul sgn) c) with (sscale Z Z.mul sgn c). rewrite (seval_sscale Zth). fold S0. clear - Hsgn. lia.
  - left. pose proof (size_pow_Z (Z.abs S0) (Z.abs_nonneg S0)) as H.
    replace (Z.of_nat (S (S (N.to_nat (N.size (Z.to_N (Z.abs S0)))))) - 2)
      with (Z.of_N (N.size (Z.to_N (Z.abs S0)))) by (clear; lia).
    exact H.
  - rewrite map_length. exact Hlen.
  - constructor.
Qed.
