(* C21 -- algebra of coefficient lists: the schoolbook operations of PolySpec.v form a
   commutative ring up to [peq]; evaluation is a ring homomorphism. *)
From SE Require Import Base.Prelude C21.PolyModel C21.PolySpec.
From Coq Require Import Ring Lia.

Section ListAlg.
  Variable C : Type.
  Variables (c0 c1 : C) (cadd cmul csub : C -> C -> C) (copp : C -> C).
  Hypothesis Crt : ring_theory c0 c1 cadd cmul csub copp eq.
  Add Ring CRing : Crt.

  Local Notation "a ⊕ b" := (cadd a b) (at level 50, left associativity).
  Local Notation "a ⊗ b" := (cmul a b) (at level 40, left associativity).
  Local Notation sadd := (sadd C cadd).
  Local Notation sneg := (sneg C copp).
  Local Notation sscale := (sscale C cmul).
  Local Notation smul := (smul C c0 cadd cmul).
  Local Notation seval := (seval C c0 cadd cmul).
  Local Notation spow_nat := (spow_nat C c0 c1 cadd cmul).
  Local Notation peq := (@peq C c0).
  Local Notation cf p k := (nth k p c0).

  Lemma nth_nil : forall k : nat, cf (@nil C) k = c0.
  Proof. destruct k; reflexivity. Qed.

  Lemma nth_sadd : forall p q k, cf (sadd p q) k = cf p k ⊕ cf q k.
  Proof.
    induction p as [|a p IH]; intros q k.
    - cbn [PolySpec.sadd]. rewrite nth_nil. ring.
    - destruct q as [|b q].
      + cbn [PolySpec.sadd]. rewrite nth_nil. ring.
      + cbn [PolySpec.sadd]. destruct k; cbn [nth]. reflexivity. apply IH.
  Qed.

  (* a function that fixes zero, applied to every coefficient *)
  Lemma nth_map_zero : forall (f : C -> C) p k, f c0 = c0 -> cf (map f p) k = f (cf p k).
  Proof.
    intros f p k H. transitivity (nth k (map f p) (f c0)). rewrite H. reflexivity. apply map_nth.
  Qed.

  Lemma nth_sscale : forall a p k, cf (sscale a p) k = a ⊗ cf p k.
  Proof. intros. apply (nth_map_zero (cmul a)). ring. Qed.

  Lemma nth_sneg : forall p k, cf (sneg p) k = copp (cf p k).
  Proof. intros. apply (nth_map_zero copp). ring. Qed.

  Definition shiftc (l : list C) (k : nat) : C := match k with O => c0 | S k' => cf l k' end.

  Lemma nth_smul_cons : forall a p q k,
    cf (smul (a :: p) q) k = a ⊗ cf q k ⊕ shiftc (smul p q) k.
  Proof.
    intros. cbn [PolySpec.smul]. rewrite nth_sadd, nth_sscale.
    destruct k; reflexivity.
  Qed.

  Lemma nth_smul_nil_r : forall p k, cf (smul p []) k = c0.
  Proof.
    induction p as [|a p IH]; intros k.
    - apply nth_nil.
    - rewrite nth_smul_cons, nth_nil. destruct k; cbn [shiftc]; [|rewrite IH]; ring.
  Qed.

  Lemma nth_smul_zero_l : forall p q, (forall k, cf p k = c0) -> forall k, cf (smul p q) k = c0.
  Proof.
    induction p as [|a p IH]; intros q Hz k.
    - apply nth_nil.
    - rewrite nth_smul_cons.
      assert (a = c0) by (apply (Hz O)). subst a.
      assert (Hz' : forall k, cf p k = c0) by (intro j; apply (Hz (S j))).
      destruct k; cbn [shiftc]; [|rewrite (IH q Hz')]; ring.
  Qed.

  Lemma smul_peq_l : forall p p' q, peq p p' -> peq (smul p q) (smul p' q).
  Proof.
    induction p as [|a p IH]; intros p' q H k.
    - rewrite nth_nil. symmetry. apply nth_smul_zero_l.
      intro j. rewrite <- (H j). apply nth_nil.
    - destruct p' as [|a' p'].
      + rewrite nth_nil. apply nth_smul_zero_l. intro j. rewrite (H j). apply nth_nil.
      + rewrite !nth_smul_cons.
        assert (a = a') by (apply (H O)). subst a'.
        assert (H' : peq p p') by (intro j; apply (H (S j))).
        destruct k; cbn [shiftc]. reflexivity. rewrite (IH p' q H'). reflexivity.
  Qed.

  Lemma nth_smul_cons_r : forall p b q k,
    cf (smul p (b :: q)) k = b ⊗ cf p k ⊕ shiftc (smul p q) k.
  Proof.
    induction p as [|a p IH]; intros b q k.
    - rewrite !nth_nil. destruct k; cbn [shiftc]; rewrite ?nth_nil; ring.
    - rewrite !nth_smul_cons. destruct k; cbn [shiftc nth].
      + ring.
      + rewrite IH. rewrite nth_smul_cons. destruct k; cbn [shiftc]; ring.
  Qed.

  Lemma smul_comm : forall p q k, cf (smul p q) k = cf (smul q p) k.
  Proof.
    induction p as [|a p IH]; intros q k.
    - rewrite nth_nil, nth_smul_nil_r. reflexivity.
    - rewrite nth_smul_cons, nth_smul_cons_r.
      destruct k; cbn [shiftc]. reflexivity. rewrite IH. reflexivity.
  Qed.

  Lemma smul_peq_r : forall p q q', peq q q' -> peq (smul p q) (smul p q').
  Proof.
    intros p q q' H k. rewrite smul_comm, (smul_comm p q'). apply smul_peq_l. exact H.
  Qed.

  Lemma nth_smul_sadd_l : forall p q r k,
    cf (smul (sadd p q) r) k = cf (smul p r) k ⊕ cf (smul q r) k.
  Proof.
    induction p as [|a p IH]; intros q r k.
    - cbn [PolySpec.sadd]. change (smul [] r) with (@nil C). rewrite (nth_nil k). ring.
    - destruct q as [|b q].
      + cbn [PolySpec.sadd]. change (smul [] r) with (@nil C). rewrite (nth_nil k). ring.
      + cbn [PolySpec.sadd]. rewrite !nth_smul_cons.
        destruct k; cbn [shiftc]. ring. rewrite IH. ring.
  Qed.

  Lemma nth_smul_sscale_l : forall a p q k,
    cf (smul (sscale a p) q) k = a ⊗ cf (smul p q) k.
  Proof.
    intros a p. induction p as [|b p IH]; intros q k.
    - cbn [PolySpec.sscale map]. rewrite !nth_nil. ring.
    - cbn [PolySpec.sscale map]. fold (sscale a p). rewrite !nth_smul_cons.
      destruct k; cbn [shiftc]. ring. rewrite IH. ring.
  Qed.

  Lemma nth_smul_shift_l : forall p q k,
    cf (smul (c0 :: p) q) k = shiftc (smul p q) k.
  Proof. intros. rewrite nth_smul_cons. ring. Qed.

  Lemma smul_assoc : forall p q r k,
    cf (smul (smul p q) r) k = cf (smul p (smul q r)) k.
  Proof.
    induction p as [|a p IH]; intros q r k.
    - cbn [PolySpec.smul]. reflexivity.
    - rewrite nth_smul_cons. cbn [PolySpec.smul].
      rewrite nth_smul_sadd_l, nth_smul_sscale_l, nth_smul_shift_l.
      destruct k; cbn [shiftc]. reflexivity. rewrite IH. reflexivity.
  Qed.

  Lemma nth_smul_one_l : forall q k, cf (smul [c1] q) k = cf q k.
  Proof.
    intros. rewrite nth_smul_cons. cbn [PolySpec.smul].
    destruct k; cbn [shiftc]; rewrite ?nth_nil; ring.
  Qed.

  Lemma peq_refl : forall p, peq p p.
  Proof. intros p k. reflexivity. Qed.
  Lemma peq_sym : forall p q, peq p q -> peq q p.
  Proof. intros p q H k. symmetry. apply H. Qed.
  Lemma peq_trans : forall p q r, peq p q -> peq q r -> peq p r.
  Proof. intros p q r H1 H2 k. rewrite H1. apply H2. Qed.

  Lemma spow_nat_add : forall p a b,
    peq (spow_nat p (a + b)) (smul (spow_nat p a) (spow_nat p b)).
  Proof.
    intros p a b. induction a as [|a IH].
    - intro k. cbn [Nat.add PolySpec.spow_nat]. rewrite nth_smul_one_l. reflexivity.
    - cbn [Nat.add PolySpec.spow_nat].
      eapply peq_trans. apply smul_peq_r. exact IH.
      intro k. rewrite smul_assoc. reflexivity.
  Qed.

  Lemma seval_sadd : forall p q x, seval (sadd p q) x = seval p x ⊕ seval q x.
  Proof.
    induction p as [|a p IH]; intros q x.
    - cbn. ring.
    - destruct q as [|b q]; cbn [PolySpec.sadd PolySpec.seval]. ring. rewrite IH. ring.
  Qed.

  Lemma seval_sscale : forall a p x, seval (sscale a p) x = a ⊗ seval p x.
  Proof.
    intros a p x. induction p as [|b p IH]; cbn [PolySpec.sscale map PolySpec.seval].
    - ring.
    - fold (sscale a p). rewrite IH. ring.
  Qed.

  Lemma seval_smul : forall p q x, seval (smul p q) x = seval p x ⊗ seval q x.
  Proof.
    induction p as [|a p IH]; intros q x; cbn [PolySpec.smul PolySpec.seval].
    - ring.
    - rewrite seval_sadd, seval_sscale. cbn [PolySpec.seval]. rewrite IH. ring.
  Qed.

  Lemma seval_sneg : forall p x, seval (sneg p) x = copp (seval p x).
  Proof.
    induction p as [|a p IH]; intros x; cbn [PolySpec.sneg map PolySpec.seval].
    - ring.
    - fold (sneg p). rewrite IH. ring.
  Qed.

  Lemma seval_zero : forall p x, (forall k, cf p k = c0) -> seval p x = c0.
  Proof.
    induction p as [|a p IH]; intros x H; cbn [PolySpec.seval].
    - reflexivity.
    - rewrite (IH x (fun j => H (S j))). rewrite (H O : a = c0). ring.
  Qed.

  Lemma seval_peq : forall p q x, peq p q -> seval p x = seval q x.
  Proof.
    induction p as [|a p IH]; intros q x H.
    - cbn [PolySpec.seval]. symmetry. apply seval_zero. intro k. rewrite <- H. apply nth_nil.
    - destruct q as [|b q].
      + apply seval_zero. intro k. rewrite H. apply nth_nil.
      + cbn [PolySpec.seval]. rewrite (H O : a = b).
        rewrite (IH q x (fun j => H (S j))). reflexivity.
  Qed.

  Lemma smul_support : forall p q (m n : nat),
    (forall k, (m <= k)%nat -> cf p k = c0) -> (forall k, (n <= k)%nat -> cf q k = c0) ->
    forall k, (m + n <= S k)%nat -> cf (smul p q) k = c0.
  Proof.
    induction p as [|a p IH]; intros q m n Hm Hn k Hk.
    - apply nth_nil.
    - destruct m as [|m].
      + apply nth_smul_zero_l. intro j. apply Hm. lia.
      + rewrite nth_smul_cons. rewrite (Hn k) by lia.
        destruct k; cbn [shiftc]. ring.
        rewrite (IH q m n); try assumption. ring. intros j Hj. apply (Hm (S j)). lia. lia.
  Qed.

  Lemma smul_top : forall p q (m n : nat),
    (forall k, (m < k)%nat -> cf p k = c0) -> (forall k, (n < k)%nat -> cf q k = c0) ->
    cf (smul p q) (m + n) = cf p m ⊗ cf q n.
  Proof.
    induction p as [|a p IH]; intros q m n Hm Hn.
    - rewrite !nth_nil. ring.
    - rewrite nth_smul_cons. destruct m as [|m].
      + cbn [Nat.add nth]. destruct n as [|n]; cbn [shiftc]. ring.
        rewrite (nth_smul_zero_l p q). ring. intro j. apply (Hm (S j)). lia.
      + rewrite (Hn (S m + n)%nat) by lia. cbn [Nat.add shiftc nth].
        rewrite (IH q m n). ring. intros j Hj. apply (Hm (S j)). lia. exact Hn.
  Qed.

  Definition mono (k : nat) (q : C) : list C := repeat c0 k ++ [q].

  Lemma nth_mono : forall k q j, cf (mono k q) j = if Nat.eqb j k then q else c0.
  Proof.
    intros k q j. unfold mono. destruct (Nat.eqb j k) eqn:E.
    - apply Nat.eqb_eq in E. subst j. rewrite app_nth2; rewrite repeat_length. 2: lia.
      rewrite Nat.sub_diag. reflexivity.
    - apply Nat.eqb_neq in E. destruct (Nat.lt_ge_cases j k) as [L|L].
      + rewrite app_nth1 by (rewrite repeat_length; exact L). apply nth_repeat.
      + rewrite app_nth2 by (rewrite repeat_length; exact L). rewrite repeat_length.
        destruct (j - k)%nat as [|[|d]] eqn:Ed. lia. reflexivity. reflexivity.
  Qed.

  Lemma nth_smul_sadd_r : forall p q r k,
    cf (smul p (sadd q r)) k = cf (smul p q) k ⊕ cf (smul p r) k.
  Proof.
    intros. rewrite smul_comm, nth_smul_sadd_l, (smul_comm q p), (smul_comm r p). reflexivity.
  Qed.

  Lemma nth_smul_sneg_r : forall p q k, cf (smul p (sneg q)) k = copp (cf (smul p q) k).
  Proof.
    intros p q k.
    rewrite (smul_peq_r p (sneg q) (sscale (copp c1) q)) by (intro j; rewrite nth_sneg, nth_sscale; ring).
    rewrite smul_comm, nth_smul_sscale_l, smul_comm. ring.
  Qed.
End ListAlg.

(* the ring is read off its [ring_theory] *)
Arguments nth_sadd {C c0 c1 cadd cmul csub copp} Crt.
Arguments nth_sscale {C c0 c1 cadd cmul csub copp} Crt.
Arguments nth_sneg {C c0 c1 cadd cmul csub copp} Crt.
Arguments nth_smul_cons {C c0 c1 cadd cmul csub copp} Crt.
Arguments nth_smul_nil_r {C c0 c1 cadd cmul csub copp} Crt.
Arguments nth_smul_one_l {C c0 c1 cadd cmul csub copp} Crt.
Arguments nth_smul_sadd_l {C c0 c1 cadd cmul csub copp} Crt.
Arguments nth_smul_sadd_r {C c0 c1 cadd cmul csub copp} Crt.
Arguments nth_smul_sneg_r {C c0 c1 cadd cmul csub copp} Crt.
Arguments nth_smul_zero_l {C c0 c1 cadd cmul csub copp} Crt.
Arguments smul_comm {C c0 c1 cadd cmul csub copp} Crt.
Arguments smul_assoc {C c0 c1 cadd cmul csub copp} Crt.
Arguments smul_peq_l {C c0 c1 cadd cmul csub copp} Crt.
Arguments smul_peq_r {C c0 c1 cadd cmul csub copp} Crt.
Arguments smul_support {C c0 c1 cadd cmul csub copp} Crt.
Arguments smul_top {C c0 c1 cadd cmul csub copp} Crt.
Arguments spow_nat_add {C c0 c1 cadd cmul csub copp} Crt.
Arguments seval_smul {C c0 c1 cadd cmul csub copp} Crt.
Arguments seval_peq {C c0 c1 cadd cmul csub copp} Crt.
Arguments seval_sneg {C c0 c1 cadd cmul csub copp} Crt.
Arguments seval_sscale {C c0 c1 cadd cmul csub copp} Crt.
Arguments seval_sadd {C c0 c1 cadd cmul csub copp} Crt.
