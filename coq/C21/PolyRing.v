(* C21 -- ring laws of mul_upoly on UIntPoly AS REPRESENTATIONS: since canonical dictionaries are
   determined by their coefficients (z_repr) and the product is from_vec of the schoolbook
   product (z_mul_upoly), a*b and b*a are the same dictionary, for all canonical operands of
   any size within the 32-bit exponent/Kronecker limits. *)
From SE Require Import Base.Prelude C21.PolyModel C21.PolySpec C21.PolyList C21.PolyDict C21.PolyProofs C21.PolyKron.
Local Open Scope Z_scope.

Theorem z_mul_comm_structural : forall a b,
  zwf a -> zwf b -> fits_u32 a b = true -> fits_u32 b a = true ->
  zimul a b = zimul b a.
Proof.
  intros a b. eapply mul_comm_structural with (ok := fun a b => fits_u32 a b = true); zinst.
  exact z_mul_upoly.
Qed.

(* (a*b)*c and a*(b*c) are the same dictionary whenever the four products stay within the limits *)
Theorem z_mul_assoc_structural : forall a b c ab bc,
  zwf a -> zwf b -> zwf c ->
  fits_u32 a b = true -> fits_u32 b c = true ->
  zimul a b = Ok ab -> zimul b c = Ok bc ->
  fits_u32 ab c = true -> fits_u32 a bc = true ->
  zimul ab c = zimul a bc.
Proof.
  intros a b c ab bc. eapply mul_assoc_structural with (ok := fun a b => fits_u32 a b = true); zinst.
  exact z_mul_upoly.
Qed.

(* the hypotheses are satisfiable: (1 + 2x) * (3 + x^2) * (-1 + x) *)
Example z_mul_assoc_nonvacuous :
  let a := zfrom_vec [1; 2] in let b := zfrom_vec [3; 0; 1] in let c := zfrom_vec [-1; 1] in
  exists ab bc r, zwf a /\ zwf b /\ zwf c /\ fits_u32 a b = true /\ fits_u32 b c = true /\
    zimul a b = Ok ab /\ zimul b c = Ok bc /\ fits_u32 ab c = true /\ fits_u32 a bc = true /\
    zimul ab c = Ok r /\ r <> [].
Proof.
  cbv zeta. destruct z_repr as (Hw & _).
  eexists _, _, _. repeat (split; [first [apply Hw | vm_compute; reflexivity]|]).
  vm_compute. discriminate.
Qed.
