(* C21 -- the dictionary operations of the model (ODictWrapper) against schoolbook arithmetic
   on coefficient lists, for any coefficient ring with decidable equality. *)
From SE Require Import Base.Prelude C21.PolyModel C21.PolySpec C21.PolyList.
From Coq Require Import Ring Lia ZifyBool ZifyN.
Local Open Scope N_scope.
Local Open Scope res_scope.

Section DictProofs.
  Variable C : Type.
  Variables (c0 c1 : C) (cadd cmul csub : C -> C -> C) (copp : C -> C).
  Variable ceqb : C -> C -> bool.
  Hypothesis Crt : ring_theory c0 c1 cadd cmul csub copp eq.
  Hypothesis ceqb_spec : forall x y, ceqb x y = true <-> x = y.
  Add Ring CRing2 : Crt.

  Local Notation "a ⊕ b" := (cadd a b) (at level 50, left associativity).
  Local Notation "a ⊗ b" := (cmul a b) (at level 40, left associativity).
  Local Notation dict := (list (N * C)).
  Local Notation coeff := (get_coeff C c0).
  Local Notation from_vec := (from_vec C c0 ceqb).
  Local Notation from_vec_aux := (from_vec_aux C c0 ceqb).
  Local Notation clean := (clean C c0 ceqb).
  Local Notation cnz := (cnz C c0 ceqb).
  Local Notation wf := (wf C c0).
  Local Notation nonzero := (nonzero C c0).
  Local Notation sadd := (sadd C cadd).
  Local Notation sneg := (sneg C copp).
  Local Notation ssub := (ssub C cadd copp).
  Local Notation smul := (smul C c0 cadd cmul).
  Local Notation seval := (seval C c0 cadd cmul).
  Local Notation peq := (@peq C c0).
  Local Notation cf p k := (nth k p c0).
  Local Notation above k d := (Forall (fun kv : N * C => k < fst kv) d).

  Lemma ceqb_false : forall x y, ceqb x y = false <-> x <> y.
  Proof. intros. rewrite <- ceqb_spec. destruct (ceqb x y); split; congruence. Qed.
  Lemma cnz_true : forall v, cnz v = true <-> v <> c0.
  Proof. intro v. unfold PolyModel.cnz. rewrite Bool.negb_true_iff. apply ceqb_false. Qed.
  Lemma cnz_false : forall v, cnz v = false <-> v = c0.
  Proof. intro v. unfold PolyModel.cnz. rewrite Bool.negb_false_iff. apply ceqb_spec. Qed.

  Lemma above_weaken : forall (d : dict) j k, j <= k -> above k d -> above j d.
  Proof.
    intros d j k Hjk H. eapply Forall_impl; [|exact H]. cbn. intros a Ha. lia.
  Qed.

  Lemma coeff_no_key : forall (d : dict) j, Forall (fun kv => fst kv <> j) d -> coeff d j = c0.
  Proof.
    induction d as [|[k v] d IH]; intros j H; cbn [get_coeff]. reflexivity.
    inversion H as [|? ? Hk Hd]; subst. cbn [fst] in Hk.
    replace (k =? j) with false by lia. apply IH. exact Hd.
  Qed.

  Lemma coeff_above : forall (d : dict) k j, above k d -> j <= k -> coeff d j = c0.
  Proof.
    intros d k j H Hj. apply coeff_no_key. eapply Forall_impl; [|exact H]. cbn. intros a Ha. lia.
  Qed.

  (* dictionaries are determined by their coefficients *)
  Lemma dict_ext : forall a b : dict, wf a -> wf b -> (forall k, coeff a k = coeff b k) -> a = b.
  Proof.
    induction a as [|[k v] a IH]; intros b [Sa Na] [Sb Nb] H.
    - destruct b as [|[k' v'] b]. reflexivity.
      exfalso. specialize (H k'). cbn [get_coeff] in H. rewrite N.eqb_refl in H.
      inversion Nb; subst. cbn in *. congruence.
    - destruct b as [|[k' v'] b].
      + exfalso. specialize (H k). cbn [get_coeff] in H. rewrite N.eqb_refl in H.
        inversion Na; subst. cbn in *. congruence.
      + cbn [sorted] in Sa, Sb. destruct Sa as [Aa Sa]. destruct Sb as [Ab Sb].
        inversion Na as [|? ? Hv Na']; subst. inversion Nb as [|? ? Hv' Nb']; subst.
        cbn [snd] in Hv, Hv'.
        assert (k = k').
        { destruct (N.lt_trichotomy k k') as [L|[E|L]]; [|exact E|]; exfalso.
          - specialize (H k). cbn [get_coeff] in H. rewrite N.eqb_refl in H.
            replace (k' =? k) with false in H by lia.
            rewrite (coeff_above b k' k Ab) in H by lia. congruence.
          - specialize (H k'). cbn [get_coeff] in H. rewrite N.eqb_refl in H.
            replace (k =? k') with false in H by lia.
            rewrite (coeff_above a k k' Aa) in H by lia. congruence. }
        subst k'.
        assert (v = v').
        { specialize (H k). cbn [get_coeff] in H. rewrite N.eqb_refl in H. exact H. }
        subst v'. f_equal. apply IH; [split; assumption | split; assumption |].
        intro j. destruct (N.le_gt_cases j k) as [L|L].
        * rewrite (coeff_above a k j Aa L), (coeff_above b k j Ab L). reflexivity.
        * specialize (H j). cbn [get_coeff] in H.
          replace (k =? j) with false in H by lia. exact H.
  Qed.

  Lemma clean_cons : forall k v (d : dict),
    clean ((k, v) :: d) = if cnz v then (k, v) :: clean d else clean d.
  Proof. reflexivity. Qed.

  Lemma clean_above : forall (d : dict) k, above k d -> above k (clean d).
  Proof.
    intros d k H. unfold PolyModel.clean. apply Forall_forall. intros x Hx.
    apply filter_In in Hx. rewrite Forall_forall in H. apply H. apply Hx.
  Qed.

  Lemma clean_sorted : forall d : dict, sorted d -> sorted (clean d).
  Proof.
    induction d as [|[k v] d IH]; intros S. exact I.
    cbn [sorted] in S. destruct S as [A S]. rewrite clean_cons. destruct (cnz v).
    - cbn [sorted]. split. apply clean_above. exact A. apply IH. exact S.
    - apply IH. exact S.
  Qed.

  Lemma clean_nonzero : forall d : dict, nonzero (clean d).
  Proof.
    intro d. unfold PolySpec.nonzero. apply Forall_forall. intros x Hx.
    apply filter_In in Hx. apply cnz_true. apply Hx.
  Qed.

  Lemma coeff_clean : forall (d : dict) j, sorted d -> coeff (clean d) j = coeff d j.
  Proof.
    induction d as [|[k v] d IH]; intros j S. reflexivity.
    cbn [sorted] in S. destruct S as [A S]. rewrite clean_cons. destruct (cnz v) eqn:E; cbn [get_coeff].
    - rewrite IH by exact S. reflexivity.
    - apply cnz_false in E. subst v. rewrite IH by exact S.
      destruct (k =? j) eqn:Ek; [|reflexivity].
      apply (coeff_above d k j A). lia.
  Qed.

  Lemma clean_wf_id : forall d : dict, nonzero d -> clean d = d.
  Proof.
    induction d as [|[k v] d IH]; intros Nz. reflexivity.
    inversion Nz; subst. cbn [snd] in *. rewrite clean_cons.
    replace (cnz v) with true by (symmetry; apply cnz_true; assumption).
    rewrite IH by assumption. reflexivity.
  Qed.

  (* in a fold over the entries, those with value 0 may be skipped when they change nothing *)
  Lemma fold_right_clean : forall X (f : N * C -> X -> X) x0, (forall k x, f (k, c0) x = x) ->
    forall d : dict, fold_right f x0 (clean d) = fold_right f x0 d.
  Proof.
    intros X f x0 Hf. induction d as [|[k v] d IH]. reflexivity.
    rewrite clean_cons. destruct (cnz v) eqn:E; cbn [fold_right].
    - rewrite IH. reflexivity.
    - apply cnz_false in E. subst v. rewrite Hf. exact IH.
  Qed.

  (* all the terms a_j x^(i+j) of x^i * p; from_vec_aux keeps those with a_j <> 0 *)
  Fixpoint terms (i : N) (p : list C) : dict :=
    match p with [] => [] | a :: p' => (i, a) :: terms (i + 1) p' end.

  Lemma from_vec_aux_terms : forall p i, from_vec_aux i p = clean (terms i p).
  Proof.
    induction p as [|a p IH]; intro i; cbn [PolyModel.from_vec_aux terms]. reflexivity.
    rewrite clean_cons, IH. reflexivity.
  Qed.

  Lemma terms_above : forall p i j, j < i -> above j (terms i p).
  Proof.
    induction p as [|a p IH]; intros i j H; cbn [terms]; constructor. exact H. apply IH. lia.
  Qed.

  Lemma terms_sorted : forall p i, sorted (terms i p).
  Proof.
    induction p as [|a p IH]; intro i; cbn [terms sorted]. exact I.
    split. apply terms_above. lia. apply IH.
  Qed.

  Lemma from_vec_aux_wf : forall p i, wf (from_vec_aux i p).
  Proof.
    intros. rewrite from_vec_aux_terms. split. apply clean_sorted, terms_sorted. apply clean_nonzero.
  Qed.

  Lemma from_vec_wf : forall p, wf (from_vec p).
  Proof. intro p. apply from_vec_aux_wf. Qed.

  (* the coefficient of x^k in x^i * p: what from_vec_aux i p stores *)
  Definition cfs (i : N) (p : list C) (k : N) : C :=
    if k <? i then c0 else cf p (N.to_nat (k - i)).

  Lemma cfs_nil : forall i k, cfs i [] k = c0.
  Proof. intros. unfold cfs. destruct (k <? i). reflexivity. destruct (N.to_nat (k - i)); reflexivity. Qed.

  Lemma cfs_below : forall i p k, k < i -> cfs i p k = c0.
  Proof. intros i p k H. unfold cfs. replace (k <? i) with true by lia. reflexivity. Qed.

  Lemma cfs_cons : forall i a p k, cfs i (a :: p) k = if k =? i then a else cfs (i + 1) p k.
  Proof.
    intros. unfold cfs. destruct (k =? i) eqn:E.
    - replace (k <? i) with false by lia. replace (N.to_nat (k - i)) with O by lia. reflexivity.
    - destruct (k <? i) eqn:E1.
      + replace (k <? i + 1) with true by lia. reflexivity.
      + replace (k <? i + 1) with false by lia.
        replace (N.to_nat (k - i)) with (S (N.to_nat (k - (i + 1)))) by lia. reflexivity.
  Qed.

  Lemma cfs_0 : forall p k, cfs 0 p k = scoeff C c0 p k.
  Proof. intros. unfold cfs, scoeff. rewrite N.sub_0_r. destruct k; reflexivity. Qed.

  Lemma coeff_terms : forall p i k, coeff (terms i p) k = cfs i p k.
  Proof.
    induction p as [|a p IH]; intros i k; cbn [terms get_coeff].
    - rewrite cfs_nil. reflexivity.
    - rewrite cfs_cons, IH, (N.eqb_sym i k). reflexivity.
  Qed.

  Lemma coeff_from_vec_aux : forall p i k, coeff (from_vec_aux i p) k = cfs i p k.
  Proof. intros. rewrite from_vec_aux_terms, coeff_clean by apply terms_sorted. apply coeff_terms. Qed.

  Lemma coeff_from_vec : forall p k, coeff (from_vec p) k = scoeff C c0 p k.
  Proof. intros. unfold PolyModel.from_vec. rewrite coeff_from_vec_aux. apply cfs_0. Qed.

  Lemma from_vec_peq : forall p q, peq p q -> from_vec p = from_vec q.
  Proof.
    intros p q H. apply dict_ext; try apply from_vec_wf.
    intro k. rewrite !coeff_from_vec. unfold scoeff. apply H.
  Qed.

  Lemma from_vec_ext : forall (d : dict) p, wf d -> (forall k, coeff d k = scoeff C c0 p k) -> d = from_vec p.
  Proof.
    intros d p Hd H. apply dict_ext; [exact Hd | apply from_vec_wf |].
    intro k. rewrite coeff_from_vec. apply H.
  Qed.

  Lemma degree_cons : forall k v (d : dict),
    degree ((k, v) :: d) = match d with [] => k | _ => degree d end.
  Proof.
    intros. unfold degree. cbn [rev]. destruct d as [|kv d]. reflexivity.
    destruct (rev (kv :: d)) as [|[k2 v2] l] eqn:E.
    - exfalso. apply (f_equal (@length _)) in E. rewrite rev_length in E. discriminate.
    - reflexivity.
  Qed.

  Lemma get_lc_cons : forall k v (d : dict),
    get_lc C c0 ((k, v) :: d) = match d with [] => v | _ => get_lc C c0 d end.
  Proof.
    intros. unfold get_lc. cbn [rev]. destruct d as [|kv d]. reflexivity.
    destruct (rev (kv :: d)) as [|[k2 v2] l] eqn:E.
    - exfalso. apply (f_equal (@length _)) in E. rewrite rev_length in E. discriminate.
    - reflexivity.
  Qed.

  Lemma keys_le_degree : forall d : dict, sorted d -> Forall (fun kv => fst kv <= degree d) d.
  Proof.
    induction d as [|[k v] d IH]; intros S. constructor.
    cbn [sorted] in S. destruct S as [A S]. rewrite degree_cons.
    destruct d as [|kv d].
    - constructor. cbn. lia. constructor.
    - specialize (IH S). constructor.
      + cbn [fst]. inversion A; subst. inversion IH; subst. lia.
      + exact IH.
  Qed.

  Lemma coeff_gt_degree : forall (d : dict) j, sorted d -> degree d < j -> coeff d j = c0.
  Proof.
    intros d j S H. apply coeff_no_key. eapply Forall_impl; [|exact (keys_le_degree d S)].
    cbn. intros a Ha. lia.
  Qed.

  Lemma coeff_degree_lc : forall d : dict, sorted d -> coeff d (degree d) = get_lc C c0 d.
  Proof.
    induction d as [|[k v] d IH]; intros S. reflexivity.
    rewrite degree_cons, get_lc_cons. cbn [get_coeff].
    destruct d as [|[k2 v2] d]. rewrite N.eqb_refl. reflexivity.
    destruct S as [A S].
    pose proof (keys_le_degree _ S) as K. inversion A; subst. inversion K; subst.
    cbn [fst] in *.
    replace (k =? degree ((k2, v2) :: d)) with false by lia. apply IH. exact S.
  Qed.

  Lemma get_lc_nonzero : forall d : dict, nonzero d -> d <> [] -> get_lc C c0 d <> c0.
  Proof.
    induction d as [|[k v] d IH]; intros Nz Hne. congruence.
    rewrite get_lc_cons. inversion Nz; subst. destruct d as [|kv d]. assumption.
    apply IH. assumption. discriminate.
  Qed.

  (* the degree of from_vec p is the degree of the polynomial p denotes *)
  Lemma degree_from_vec : forall p, is_degree C c0 p (degree (from_vec p)).
  Proof.
    intro p. destruct (from_vec_wf p) as [S Nz]. split.
    - intros k Hk. rewrite <- coeff_from_vec. apply coeff_gt_degree; assumption.
    - destruct (from_vec p) as [|kv d] eqn:E.
      + right. split. reflexivity. intro k. rewrite <- coeff_from_vec, E. reflexivity.
      + left. rewrite <- coeff_from_vec, E. rewrite coeff_degree_lc by exact S.
        apply get_lc_nonzero. exact Nz. discriminate.
  Qed.

  Lemma get_lc_from_vec : forall p, get_lc C c0 (from_vec p) = scoeff C c0 p (degree (from_vec p)).
  Proof.
    intro p. rewrite <- coeff_from_vec. symmetry. apply coeff_degree_lc. apply from_vec_wf.
  Qed.

  Lemma nth_dense : forall (d : dict) k, sorted d ->
    cf (dense C c0 d) k = coeff d (N.of_nat k).
  Proof.
    intros d k Sd. unfold dense. destruct d as [|kv d]. destruct k; reflexivity.
    set (dd := kv :: d) in *.
    destruct (Nat.lt_ge_cases k (S (N.to_nat (degree dd)))) as [L|L].
    - rewrite (nth_indep _ c0 (coeff dd (N.of_nat O))) by (rewrite map_length, seq_length; exact L).
      rewrite (map_nth (fun i => coeff dd (N.of_nat i))). rewrite seq_nth by exact L. reflexivity.
    - rewrite nth_overflow by (rewrite map_length, seq_length; exact L).
      symmetry. apply coeff_gt_degree. exact Sd. lia.
  Qed.

  (* every well-formed dictionary is from_vec of its coefficient list *)
  Lemma from_vec_dense : forall d : dict, wf d -> from_vec (dense C c0 d) = d.
  Proof.
    intros d W. symmetry. apply from_vec_ext. exact W.
    intro k. unfold scoeff. rewrite nth_dense by apply W. rewrite N2Nat.id. reflexivity.
  Qed.

  Lemma from_vec_nil_zero : forall p, from_vec p = [] -> forall k, cf p k = c0.
  Proof.
    intros p H k. pose proof (coeff_from_vec p (N.of_nat k)) as E. rewrite H in E.
    unfold scoeff in E. rewrite Nat2N.id in E. symmetry. exact E.
  Qed.

  Lemma from_vec_zero : forall p, (forall k, cf p k = c0) -> from_vec p = [].
  Proof.
    intros p H. symmetry. apply from_vec_ext. split; [exact I | constructor].
    intro k. unfold scoeff. rewrite H. reflexivity.
  Qed.

  Lemma degree_top_nonzero : forall p, from_vec p <> [] -> scoeff C c0 p (degree (from_vec p)) <> c0.
  Proof.
    intros p Hne. destruct (degree_from_vec p) as [_ [H|[_ H]]]. exact H.
    exfalso. apply Hne. apply from_vec_zero. intro k. specialize (H (N.of_nat k)).
    unfold scoeff in H. rewrite Nat2N.id in H. exact H.
  Qed.

  Lemma degree_above_zero : forall p k, degree (from_vec p) < k -> scoeff C c0 p k = c0.
  Proof. intros p k H. rewrite <- coeff_from_vec. apply coeff_gt_degree. apply from_vec_wf. exact H. Qed.

  Lemma nonzero_le_degree : forall p k, scoeff C c0 p k <> c0 -> from_vec p <> [] /\ k <= degree (from_vec p).
  Proof.
    intros p k H. split.
    - intro E. apply H. rewrite <- coeff_from_vec, E. reflexivity.
    - destruct (N.le_gt_cases k (degree (from_vec p))) as [L|L]. exact L.
      exfalso. apply H. apply degree_above_zero. exact L.
  Qed.

  Lemma degree_lt_of_vanish : forall p n, from_vec p <> [] -> (forall j, n <= j -> scoeff C c0 p j = c0) ->
    degree (from_vec p) < n.
  Proof.
    intros p n Hne Hv. destruct (N.lt_ge_cases (degree (from_vec p)) n) as [L|L]. exact L.
    exfalso. apply (degree_top_nonzero p Hne). apply Hv. exact L.
  Qed.

  Lemma cf_above_degree : forall p k, (N.to_nat (degree (from_vec p)) < k)%nat -> cf p k = c0.
  Proof.
    intros p k H. rewrite <- (Nat2N.id k). apply (degree_above_zero p (N.of_nat k)). lia.
  Qed.

  Section TermOps.
    (* add_term, sub_term and upd_term share their shape: combine an existing value with [g] and
       erase the entry if [z] says so, insert [h v] for a missing key *)
    Variable g : C -> C -> C.
    Variable h : C -> C.
    Variable z : C -> bool.
    Fixpoint gen_term (d : dict) (k : N) (v : C) : dict :=
      match d with
      | [] => [(k, h v)]
      | (k', v') :: r =>
          if k' <? k then (k', v') :: gen_term r k v
          else if k' =? k then
            let s := g v' v in if z s then r else (k', s) :: r
          else (k, h v) :: d
      end.
    Hypothesis g_zero : forall v, g c0 v = h v.
    Hypothesis z_zero : forall s, z s = true -> s = c0.

    Lemma gen_term_above : forall d k v m, above m d -> m < k -> above m (gen_term d k v).
    Proof.
      induction d as [|[k' v'] d IH]; intros k v m A Hm; cbn [gen_term].
      - constructor. exact Hm. constructor.
      - inversion A; subst. cbn [fst] in *.
        destruct (k' <? k). constructor. assumption. apply IH; assumption.
        destruct (k' =? k). destruct (z (g v' v)). assumption. constructor; assumption.
        constructor. exact Hm. exact A.
    Qed.

    Lemma gen_term_sorted : forall d k v, sorted d -> sorted (gen_term d k v).
    Proof.
      induction d as [|[k' v'] d IH]; intros k v S; cbn [gen_term]. cbn. auto.
      cbn [sorted] in S. destruct S as [A S].
      destruct (k' <? k) eqn:E1.
      - cbn [sorted]. split. apply gen_term_above. exact A. lia. apply IH. exact S.
      - destruct (k' =? k) eqn:E2.
        + destruct (z (g v' v)). exact S. cbn [sorted]. split; assumption.
        + cbn [sorted]. split; [|split; assumption].
          constructor. cbn. lia. eapply above_weaken; [|exact A]. lia.
    Qed.

    Lemma coeff_gen_term : forall d k v j, sorted d ->
      coeff (gen_term d k v) j = if j =? k then g (coeff d k) v else coeff d j.
    Proof.
      induction d as [|[k' v'] d IH]; intros k v j S; cbn [gen_term get_coeff].
      - rewrite g_zero. rewrite (N.eqb_sym k j). destruct (j =? k); reflexivity.
      - cbn [sorted] in S. destruct S as [A S].
        destruct (k' <? k) eqn:E1.
        + cbn [get_coeff]. rewrite IH by exact S.
          replace (k' =? k) with false by lia.
          destruct (k' =? j) eqn:E3; [|reflexivity]. replace (j =? k) with false by lia. reflexivity.
        + destruct (k' =? k) eqn:E2.
          * assert (k' = k) by lia. subst k'.
            destruct (z (g v' v)) eqn:E3.
            -- apply z_zero in E3. destruct (j =? k) eqn:E4.
               ++ assert (j = k) by lia. subst j. rewrite E3. apply (coeff_above d k k A). lia.
               ++ replace (k =? j) with false by lia. reflexivity.
            -- cbn [get_coeff]. destruct (j =? k) eqn:E4.
               ++ replace (k =? j) with true by lia. reflexivity.
               ++ replace (k =? j) with false by lia. reflexivity.
          * cbn [get_coeff]. rewrite (N.eqb_sym k j). destruct (j =? k) eqn:E4.
            -- assert (j = k) by lia. subst j.
               rewrite (coeff_above d k' k A) by lia. symmetry. apply g_zero.
            -- reflexivity.
    Qed.

    Hypothesis g_zero_r : forall x, g x c0 = x.

    Lemma gen_fold_spec : forall (b a : dict), sorted a -> sorted b ->
      let r := fold_left (fun acc kv => gen_term acc (fst kv) (snd kv)) b a in
      sorted r /\ forall j, coeff r j = g (coeff a j) (coeff b j).
    Proof.
      induction b as [|[k v] b IH]; intros a Sa Sb; cbn [fold_left fst snd].
      - split. exact Sa. intro j. cbn [get_coeff]. symmetry. apply g_zero_r.
      - cbn [sorted] in Sb. destruct Sb as [Ab Sb].
        destruct (IH (gen_term a k v) (gen_term_sorted a k v Sa) Sb) as [Sr Hr].
        split. exact Sr. intro j. cbn [get_coeff].
        rewrite (Hr j). rewrite coeff_gen_term by exact Sa.
        destruct (k =? j) eqn:E.
        + assert (k = j) by lia. subst j. rewrite N.eqb_refl.
          rewrite (coeff_above b k k Ab) by lia. apply g_zero_r.
        + replace (j =? k) with false by lia. reflexivity.
    Qed.

    Hypothesis z_nonzero : forall s, z s = false -> s <> c0.

    Lemma gen_term_nonzero : forall d k v, nonzero d -> h v <> c0 -> nonzero (gen_term d k v).
    Proof.
      induction d as [|[k' v'] d IH]; intros k v Nz Hv; cbn [gen_term].
      - constructor. exact Hv. constructor.
      - inversion Nz; subst.
        destruct (k' <? k). constructor. assumption. apply IH; assumption.
        destruct (k' =? k).
        + destruct (z (g v' v)) eqn:E. assumption.
          constructor. cbn. apply z_nonzero. exact E. assumption.
        + constructor. exact Hv. exact Nz.
    Qed.

    Lemma gen_fold_nonzero : forall (b a : dict), nonzero a -> Forall (fun kv => h (snd kv) <> c0) b ->
      nonzero (fold_left (fun acc kv => gen_term acc (fst kv) (snd kv)) b a).
    Proof.
      induction b as [|[k v] b IH]; intros a Na Nb; cbn [fold_left fst snd]. exact Na.
      inversion Nb; subst. apply IH; [|assumption]. apply gen_term_nonzero; assumption.
    Qed.
  End TermOps.

  Local Notation erase := (fun s : C => ceqb s c0).

  Lemma add_term_gen : forall d k v,
    add_term C c0 cadd ceqb d k v = gen_term cadd (fun x => x) erase d k v.
  Proof. induction d as [|[k' v'] d IH]; intros; cbn [add_term gen_term]. reflexivity. rewrite IH. reflexivity. Qed.
  Lemma sub_term_gen : forall d k v,
    sub_term C c0 csub copp ceqb d k v = gen_term csub copp erase d k v.
  Proof. induction d as [|[k' v'] d IH]; intros; cbn [sub_term gen_term]. reflexivity. rewrite IH. reflexivity. Qed.
  Lemma upd_term_gen : forall d k v,
    upd_term C c0 cadd d k v = gen_term cadd (cadd c0) (fun _ => false) d k v.
  Proof. induction d as [|[k' v'] d IH]; intros; cbn [upd_term gen_term]. reflexivity. rewrite IH. reflexivity. Qed.

  Lemma dict_add_gen : forall b a, dict_add C c0 cadd ceqb a b
    = fold_left (fun acc kv => gen_term cadd (fun x => x) erase acc (fst kv) (snd kv)) b a.
  Proof.
    unfold dict_add. induction b as [|kv b IH]; intro a; cbn [fold_left]. reflexivity.
    rewrite add_term_gen. apply IH.
  Qed.
  Lemma dict_sub_gen : forall b a, dict_sub C c0 csub copp ceqb a b
    = fold_left (fun acc kv => gen_term csub copp erase acc (fst kv) (snd kv)) b a.
  Proof.
    unfold dict_sub. induction b as [|kv b IH]; intro a; cbn [fold_left]. reflexivity.
    rewrite sub_term_gen. apply IH.
  Qed.

  Lemma erase_zero : forall s, erase s = true -> s = c0.
  Proof. intros s H. apply ceqb_spec. exact H. Qed.
  Lemma erase_nonzero : forall s, erase s = false -> s <> c0.
  Proof. intros s H. apply ceqb_false. exact H. Qed.

  Lemma copp_nonzero : forall v, v <> c0 -> copp v <> c0.
  Proof. intros v H E. apply H. replace v with (copp (copp v)) by ring. rewrite E. ring. Qed.

  Lemma dict_add_spec : forall a b : dict, wf a -> wf b ->
    wf (dict_add C c0 cadd ceqb a b) /\
    forall j, coeff (dict_add C c0 cadd ceqb a b) j = coeff a j ⊕ coeff b j.
  Proof.
    intros a b [Sa Na] [Sb Nb]. rewrite dict_add_gen.
    destruct (gen_fold_spec cadd (fun x => x) erase (fun v => ltac:(ring) : c0 ⊕ v = v) erase_zero
                (fun x => ltac:(ring) : x ⊕ c0 = x) b a Sa Sb) as [Sr Hr].
    split; [split|]. exact Sr. apply gen_fold_nonzero; try assumption. exact erase_nonzero. exact Hr.
  Qed.

  Lemma dict_sub_spec : forall a b : dict, wf a -> wf b ->
    wf (dict_sub C c0 csub copp ceqb a b) /\
    forall j, coeff (dict_sub C c0 csub copp ceqb a b) j = csub (coeff a j) (coeff b j).
  Proof.
    intros a b [Sa Na] [Sb Nb]. rewrite dict_sub_gen.
    destruct (gen_fold_spec csub copp erase (fun v => ltac:(ring) : csub c0 v = copp v) erase_zero
                (fun x => ltac:(ring) : csub x c0 = x) b a Sa Sb) as [Sr Hr].
    split; [split|]. exact Sr.
    apply gen_fold_nonzero. exact erase_nonzero. assumption.
    eapply Forall_impl; [|exact Nb]. intros kv H. apply copp_nonzero. exact H.
    exact Hr.
  Qed.

  Theorem dict_add_correct : forall p q,
    dict_add C c0 cadd ceqb (from_vec p) (from_vec q) = from_vec (sadd p q).
  Proof.
    intros p q. destruct (dict_add_spec _ _ (from_vec_wf p) (from_vec_wf q)) as [W H].
    apply from_vec_ext. exact W. intro k. rewrite H, !coeff_from_vec.
    unfold scoeff. rewrite (nth_sadd Crt). reflexivity.
  Qed.

  Theorem dict_sub_correct : forall p q,
    dict_sub C c0 csub copp ceqb (from_vec p) (from_vec q) = from_vec (ssub p q).
  Proof.
    intros p q. destruct (dict_sub_spec _ _ (from_vec_wf p) (from_vec_wf q)) as [W H].
    apply from_vec_ext. exact W. intro k. rewrite H, !coeff_from_vec.
    unfold scoeff, PolySpec.ssub. rewrite (nth_sadd Crt).
    rewrite (nth_sneg Crt). ring.
  Qed.

  (* a function that preserves and reflects zero, applied to every value *)
  Lemma map_val_spec : forall f : C -> C, f c0 = c0 -> (forall v, v <> c0 -> f v <> c0) ->
    forall a : dict, wf a ->
    let r := map (fun kv : N * C => (fst kv, f (snd kv))) a in
    wf r /\ forall j, coeff r j = f (coeff a j).
  Proof.
    intros f Hf0 Hf. induction a as [|[k v] a IH]; intros [Sa Na]; cbn [map fst snd].
    - split. split; [exact I | constructor]. intro j. symmetry. exact Hf0.
    - cbn [sorted] in Sa. destruct Sa as [A Sa]. inversion Na as [|? ? Hv Na']; subst.
      destruct (IH (conj Sa Na')) as [[S' N'] H']. split; [split|].
      + cbn [sorted]. split; [|exact S']. apply Forall_map. exact A.
      + constructor; [|exact N']. apply Hf. exact Hv.
      + intro j. cbn [get_coeff]. destruct (k =? j). reflexivity. apply H'.
  Qed.

  Lemma dict_neg_spec : forall a : dict, wf a ->
    wf (dict_neg C c1 cmul copp a) /\ forall j, coeff (dict_neg C c1 cmul copp a) j = copp (coeff a j).
  Proof.
    intros a W. destruct (map_val_spec (fun v => v ⊗ copp c1)) with (a := a) as [Wr H].
    - ring.
    - intros v Hv E. apply Hv. replace v with (copp (v ⊗ copp c1)) by ring. rewrite E. ring.
    - exact W.
    - split. exact Wr. intro j. unfold dict_neg. rewrite H. ring.
  Qed.

  Theorem dict_neg_correct : forall p, dict_neg C c1 cmul copp (from_vec p) = from_vec (sneg p).
  Proof.
    intro p. destruct (dict_neg_spec _ (from_vec_wf p)) as [W H].
    apply from_vec_ext. exact W. intro k. rewrite H, coeff_from_vec.
    unfold scoeff. rewrite (nth_sneg Crt). reflexivity.
  Qed.

  Local Notation upd_term := (upd_term C c0 cadd).

  Lemma upd_term_sorted : forall (d : dict) k v, sorted d -> sorted (upd_term d k v).
  Proof. intros. rewrite upd_term_gen. apply gen_term_sorted; [reflexivity | discriminate | assumption]. Qed.

  Lemma coeff_upd_term : forall (d : dict) k v j, sorted d ->
    coeff (upd_term d k v) j = if j =? k then coeff d k ⊕ v else coeff d j.
  Proof. intros. rewrite upd_term_gen. apply coeff_gen_term; [reflexivity | discriminate | assumption]. Qed.

  (* the contribution of one term of a, and of all of a, to the coefficient of x^j *)
  Definition rowc (k1 : N) (v1 : C) (b : dict) (j : N) : C :=
    fold_right (fun i2 s => (if j =? k1 + fst i2 then v1 ⊗ snd i2 else c0) ⊕ s) c0 b.
  Definition convc (a b : dict) (j : N) : C :=
    fold_right (fun i1 s => rowc (fst i1) (snd i1) b j ⊕ s) c0 a.

  Lemma mul_row_spec : forall (b p : dict) k1 v1, sorted p ->
    Forall (fun i2 => k1 + fst i2 < W32) b ->
    sorted (mul_row C c0 cadd cmul (k1, v1) b p) /\
    forall j, coeff (mul_row C c0 cadd cmul (k1, v1) b p) j = coeff p j ⊕ rowc k1 v1 b j.
  Proof.
    unfold mul_row. induction b as [|[k2 v2] b IH]; intros p k1 v1 Sp F; cbn [fold_left fst snd].
    - split. exact Sp. intro j. cbn. ring.
    - inversion F; subst. cbn [fst] in *.
      assert (E : uadd k1 k2 = k1 + k2) by (unfold uadd; apply N.mod_small; assumption).
      rewrite E.
      destruct (IH (upd_term p (k1 + k2) (v1 ⊗ v2)) k1 v1) as [Sr Hr].
      apply upd_term_sorted; exact Sp. assumption.
      split. exact Sr. intro j. rewrite Hr. rewrite coeff_upd_term by exact Sp.
      cbn [rowc fold_right fst snd]. fold (rowc k1 v1 b j).
      destruct (j =? k1 + k2) eqn:E2.
      + assert (j = k1 + k2) by lia. subst j. ring.
      + ring.
  Qed.

  Lemma mul_acc_spec : forall (a b acc : dict), sorted acc ->
    Forall (fun i1 => Forall (fun i2 => fst i1 + fst i2 < W32) b) a ->
    let r := fold_left (fun p i1 => mul_row C c0 cadd cmul i1 b p) a acc in
    sorted r /\ forall j, coeff r j = coeff acc j ⊕ convc a b j.
  Proof.
    induction a as [|[k1 v1] a IH]; intros b acc Sacc F; cbn [fold_left].
    - split. exact Sacc. intro j. cbn. ring.
    - inversion F; subst. cbn [fst] in *.
      destruct (mul_row_spec b acc k1 v1 Sacc) as [Srow Hrow]. assumption.
      destruct (IH b _ Srow) as [Sr Hr]. assumption.
      split. exact Sr. intro j. rewrite Hr, Hrow. cbn [convc fold_right fst snd].
      fold (convc a b j). ring.
  Qed.

  Lemma rowc_from_vec : forall q i a m j, rowc i a (from_vec_aux m q) j = a ⊗ cfs (i + m) q j.
  Proof.
    intros q i a m j. rewrite from_vec_aux_terms. unfold rowc. rewrite fold_right_clean.
    2:{ intros k x. cbn [fst snd]. destruct (j =? i + k); ring. }
    revert m. induction q as [|b q IH]; intro m; cbn [terms fold_right fst snd].
    - rewrite cfs_nil. ring.
    - rewrite IH, N.add_assoc, cfs_cons. destruct (j =? i + m) eqn:Ej; [|ring].
      rewrite cfs_below by lia. ring.
  Qed.

  Lemma cfs_smul_cons : forall i a p q j,
    cfs i (smul (a :: p) q) j = a ⊗ cfs i q j ⊕ cfs (i + 1) (smul p q) j.
  Proof.
    intros. unfold cfs. destruct (j <? i) eqn:E1.
    - replace (j <? i + 1) with true by lia. ring.
    - rewrite (nth_smul_cons Crt). destruct (j =? i) eqn:E2.
      + replace (j <? i + 1) with true by lia. replace (N.to_nat (j - i)) with O by lia. reflexivity.
      + replace (j <? i + 1) with false by lia.
        replace (N.to_nat (j - i)) with (S (N.to_nat (j - (i + 1)))) by lia. reflexivity.
  Qed.

  Lemma convc_from_vec : forall p q i j,
    convc (from_vec_aux i p) (from_vec q) j = cfs i (smul p q) j.
  Proof.
    intros p q i j.
    assert (Hrow : forall i a, rowc i a (from_vec q) j = a ⊗ cfs i q j).
    { intros. unfold PolyModel.from_vec. rewrite rowc_from_vec, N.add_0_r. reflexivity. }
    rewrite from_vec_aux_terms. unfold convc. rewrite fold_right_clean.
    2:{ intros k x. cbn [fst snd]. rewrite Hrow. ring. }
    revert i. induction p as [|a p IH]; intro i; cbn [terms fold_right fst snd].
    - cbn [PolySpec.smul]. rewrite cfs_nil. reflexivity.
    - rewrite Hrow, IH, cfs_smul_cons. reflexivity.
  Qed.

  Lemma keys_sum_fit : forall a b : dict, sorted a -> sorted b -> degree a + degree b < W32 ->
    Forall (fun i1 => Forall (fun i2 => fst i1 + fst i2 < W32) b) a.
  Proof.
    intros a b Sa Sb H. pose proof (keys_le_degree a Sa) as Ka. pose proof (keys_le_degree b Sb) as Kb.
    eapply Forall_impl; [|exact Ka]. intros i1 H1. cbn in H1.
    eapply Forall_impl; [|exact Kb]. intros i2 H2. cbn in H2. lia.
  Qed.

  Lemma convc_nil_r : forall (a : dict) j, convc a [] j = c0.
  Proof.
    intros a j. unfold convc. induction a as [|i1 l IHl]; cbn [fold_right]. reflexivity.
    rewrite IHl. cbn [rowc fold_right]. ring.
  Qed.

  Lemma gmul_spec : forall a b : dict, wf a -> wf b -> degree a + degree b < W32 ->
    wf (gmul C c0 cadd cmul ceqb a b) /\
    forall j, coeff (gmul C c0 cadd cmul ceqb a b) j = convc a b j.
  Proof.
    intros a b Wa Wb H. unfold gmul.
    destruct a as [|ka a']. { cbn. split. exact Wa. reflexivity. }
    destruct b as [|kb b'].
    { cbn [is_empty]. split. exact Wb. intro j. rewrite convc_nil_r. reflexivity. }
    cbn [is_empty]. set (a := ka :: a') in *. set (b := kb :: b') in *.
    destruct (mul_acc_spec a b [] I (keys_sum_fit a b (proj1 Wa) (proj1 Wb) H)) as [Sr Hr].
    fold (mul_acc C c0 cadd cmul a b) in Sr, Hr.
    split. split. apply clean_sorted. exact Sr. apply clean_nonzero.
    intro j. rewrite coeff_clean by exact Sr. rewrite Hr. cbn [get_coeff]. ring.
  Qed.

  Theorem gmul_correct : forall p q,
    degree (from_vec p) + degree (from_vec q) < W32 ->
    gmul C c0 cadd cmul ceqb (from_vec p) (from_vec q) = from_vec (smul p q).
  Proof.
    intros p q H. destruct (gmul_spec _ _ (from_vec_wf p) (from_vec_wf q) H) as [W Hc].
    apply from_vec_ext. exact W. intro j. rewrite Hc.
    unfold PolyModel.from_vec at 1. rewrite convc_from_vec. apply cfs_0.
  Qed.

  Local Notation cpow := (cpow C c1 cmul).

  Lemma cpow_succ : forall x n, cpow x (N.succ n) = x ⊗ cpow x n.
  Proof.
    intros x [|p]; cbn [N.succ PolyModel.cpow].
    - cbn. ring.
    - apply Pos.iter_op_succ. intros a b c. ring.
  Qed.

  Lemma cpow_add : forall x a b, cpow x (a + b) = cpow x a ⊗ cpow x b.
  Proof.
    intros x a b. induction a as [|a IH] using N.peano_ind.
    - rewrite N.add_0_l. cbn [PolyModel.cpow]. ring.
    - rewrite N.add_succ_l, !cpow_succ, IH. ring.
  Qed.

  Definition dval (d : dict) (x : C) : C :=
    fold_right (fun kv s => snd kv ⊗ cpow x (fst kv) ⊕ s) c0 d.
  Definition hd_key (d : dict) (dflt : N) : N := match d with [] => dflt | (k, _) :: _ => k end.

  Lemma eval_loop : forall x (d : dict) r0 l0, sorted d -> Forall (fun kv => fst kv <= l0) d ->
    let st := fold_right (fun kv st => eval_step C c1 cadd cmul x st kv) (r0, l0) d in
    snd st = hd_key d l0 /\ fst st ⊗ cpow x (snd st) = r0 ⊗ cpow x l0 ⊕ dval d x.
  Proof.
    intros x. induction d as [|[k v] d IH]; intros r0 l0 Sd F; cbn [fold_right].
    - cbn. split. reflexivity. ring.
    - cbn [sorted] in Sd. destruct Sd as [A Sd]. inversion F as [|? ? Fk Fd]; subst. cbn [fst] in Fk.
      destruct (IH r0 l0 Sd Fd) as [H1 H2].
      set (st := fold_right (fun kv st => eval_step C c1 cadd cmul x st kv) (r0, l0) d) in *.
      unfold eval_step. cbn [fst snd hd_key]. split. reflexivity.
      assert (Hk : k <= snd st).
      { rewrite H1. destruct d as [|[k2 v2] d]; cbn [hd_key]. exact Fk.
        inversion A; subst. cbn [fst] in *. lia. }
      cbn [dval fold_right fst snd]. fold (dval d x).
      assert (Hp : cpow x (snd st) = cpow x (snd st - k) ⊗ cpow x k).
      { rewrite <- cpow_add. f_equal. lia. }
      rewrite Hp in H2.
      transitivity (v ⊗ cpow x k ⊕ fst st ⊗ (cpow x (snd st - k) ⊗ cpow x k)). ring.
      rewrite H2. ring.
  Qed.

  Lemma dval_from_vec_aux : forall p i x, dval (from_vec_aux i p) x = cpow x i ⊗ seval p x.
  Proof.
    intros p i x. rewrite from_vec_aux_terms. unfold dval. rewrite fold_right_clean.
    2:{ intros k s. cbn [fst snd]. ring. }
    revert i. induction p as [|a p IH]; intro i; cbn [terms fold_right fst snd PolySpec.seval].
    - ring.
    - rewrite IH, N.add_1_r, cpow_succ. ring.
  Qed.

  Lemma poly_eval_dval : forall (d : dict) x, sorted d ->
    poly_eval C c0 c1 cadd cmul d x = dval d x.
  Proof.
    intros d x Sd. unfold poly_eval. destruct (rev d) as [|[k0 v0] l] eqn:E.
    - assert (d = []). { rewrite <- (rev_involutive d), E. reflexivity. } subst d. reflexivity.
    - rewrite <- E.
      replace (fold_left (eval_step C c1 cadd cmul x) (rev d) (c0, k0))
        with (fold_right (fun kv st => eval_step C c1 cadd cmul x st kv) (c0, k0) d).
      2:{ rewrite <- (rev_involutive d) at 1. rewrite fold_left_rev_right. reflexivity. }
      assert (Hdeg : degree d = k0) by (unfold degree; rewrite E; reflexivity).
      destruct (eval_loop x d c0 k0 Sd) as [_ H2].
      { rewrite <- Hdeg. apply keys_le_degree. exact Sd. }
      rewrite H2. ring.
  Qed.

  Theorem poly_eval_correct : forall p x,
    poly_eval C c0 c1 cadd cmul (from_vec p) x = seval p x.
  Proof.
    intros p x. rewrite poly_eval_dval by apply from_vec_wf.
    unfold PolyModel.from_vec. rewrite dval_from_vec_aux. cbn [PolyModel.cpow]. ring.
  Qed.

  Section Diff.
  Variable cofN : N -> C.
  Local Notation dmap d := (map (fun kv : N * C => (fst kv - 1, snd kv ⊗ cofN (fst kv)))
                                (filter (fun kv : N * C => negb (fst kv =? 0)) d)).

  Lemma coeff_dmap : forall (d : dict) j, coeff (dmap d) j = coeff d (j + 1) ⊗ cofN (j + 1).
  Proof.
    induction d as [|[k v] d IH]; intro j; cbn [filter map fst snd get_coeff].
    - ring.
    - destruct (k =? 0) eqn:E0; cbn [negb map fst snd get_coeff].
      + replace (k =? j + 1) with false by lia. apply IH.
      + destruct (k - 1 =? j) eqn:E1.
        * replace (k =? j + 1) with true by lia. replace (j + 1) with k by lia. reflexivity.
        * replace (k =? j + 1) with false by lia. apply IH.
  Qed.

  Lemma dmap_above : forall (d : dict) m, 1 <= m -> above m d -> above (m - 1) (dmap d).
  Proof.
    induction d as [|[k v] d IH]; intros m Hm A; cbn [filter map fst snd]. constructor.
    inversion A; subst. cbn [fst] in *.
    replace (k =? 0) with false by lia. cbn [negb map fst snd].
    constructor. cbn [fst]. lia. apply IH; assumption.
  Qed.

  Lemma dmap_sorted : forall d : dict, sorted d -> sorted (dmap d).
  Proof.
    induction d as [|[k v] d IH]; intro Sd; cbn [filter map fst snd]. exact I.
    cbn [sorted] in Sd. destruct Sd as [A Sd].
    destruct (k =? 0) eqn:E0; cbn [negb map fst snd].
    - apply IH. exact Sd.
    - cbn [sorted]. split. apply dmap_above. lia. exact A. apply IH. exact Sd.
  Qed.

  Lemma nth_sdiff_aux : forall p i k,
    cf (sdiff_aux C cmul cofN i p) k = cf p k ⊗ cofN (i + N.of_nat k).
  Proof.
    induction p as [|a p IH]; intros i k; cbn [sdiff_aux].
    - destruct k; cbn [nth]; ring.
    - destruct k; cbn [nth].
      + rewrite N.add_0_r. reflexivity.
      + rewrite IH. replace (i + 1 + N.of_nat k) with (i + N.of_nat (S k)) by lia. reflexivity.
  Qed.

  Lemma nth_sdiff : forall p k, cf (sdiff C cmul cofN p) k = cf p (S k) ⊗ cofN (N.of_nat k + 1).
  Proof.
    intros [|a p] k; cbn [sdiff].
    - destruct k; cbn [nth]; ring.
    - rewrite nth_sdiff_aux. cbn [nth]. rewrite N.add_comm. reflexivity.
  Qed.

  Theorem dict_diff_correct : forall p,
    dict_diff C c0 cmul ceqb cofN (from_vec p) = from_vec (sdiff C cmul cofN p).
  Proof.
    intro p. unfold dict_diff. destruct (from_vec_wf p) as [Sp _].
    apply from_vec_ext.
    - split. apply clean_sorted. apply dmap_sorted. exact Sp. apply clean_nonzero.
    - intro j. rewrite coeff_clean by (apply dmap_sorted; exact Sp).
      rewrite coeff_dmap, coeff_from_vec. unfold scoeff. rewrite nth_sdiff.
      replace (N.to_nat (j + 1)) with (S (N.to_nat j)) by lia. rewrite N2Nat.id. reflexivity.
  Qed.
  End Diff.

  Lemma from_vec_smul_nil_l : forall p q, from_vec p = [] -> from_vec (smul p q) = [].
  Proof.
    intros p q E. apply from_vec_zero. apply (nth_smul_zero_l Crt).
    apply from_vec_nil_zero. exact E.
  Qed.

  Lemma from_vec_smul_nil_r : forall p q, from_vec q = [] -> from_vec (smul p q) = [].
  Proof.
    intros p q E. rewrite (from_vec_peq (smul p q) (smul q p) (smul_comm Crt p q)).
    apply from_vec_smul_nil_l. exact E.
  Qed.

  (* a product vanishes above the sum of the degrees; there its coefficient is the product of the
     two top coefficients *)
  Lemma smul_above_degrees : forall p q k,
    degree (from_vec p) + degree (from_vec q) < k -> scoeff C c0 (smul p q) k = c0.
  Proof.
    intros p q k H. unfold scoeff.
    apply (smul_support Crt p q
             (S (N.to_nat (degree (from_vec p)))) (S (N.to_nat (degree (from_vec q))))).
    - intros i Hi. apply cf_above_degree. exact Hi.
    - intros i Hi. apply cf_above_degree. exact Hi.
    - lia.
  Qed.

  Lemma smul_at_degrees : forall p q,
    scoeff C c0 (smul p q) (degree (from_vec p) + degree (from_vec q))
    = scoeff C c0 p (degree (from_vec p)) ⊗ scoeff C c0 q (degree (from_vec q)).
  Proof.
    intros p q. unfold scoeff. rewrite N2Nat.inj_add.
    apply (smul_top Crt); intros k Hk; apply cf_above_degree; exact Hk.
  Qed.

  Lemma degree_smul_le : forall p q,
    degree (from_vec (smul p q)) <= degree (from_vec p) + degree (from_vec q).
  Proof.
    intros p q. destruct (from_vec (smul p q)) as [|kv d] eqn:E. cbn. lia. rewrite <- E.
    apply N.lt_succ_r. apply degree_lt_of_vanish. rewrite E. discriminate.
    intros j Hj. apply smul_above_degrees. lia.
  Qed.

  Hypothesis Cintegral : forall x y, x ⊗ y = c0 -> x = c0 \/ y = c0.

  Lemma scale_spec : forall (a : dict) t, wf a -> t <> c0 ->
    let r := map (fun kv : N * C => (fst kv, snd kv ⊗ t)) a in
    wf r /\ forall j, coeff r j = coeff a j ⊗ t.
  Proof using Crt Cintegral.
    intros a t W Ht. apply (map_val_spec (fun v => v ⊗ t)).
    - ring.
    - intros v Hv E. destruct (Cintegral _ _ E); contradiction.
    - exact W.
  Qed.

  (* mul_upoly (operator*=) over a container product mulf *)
  Theorem imul_correct : forall (mulf : dict -> dict -> res dict) p q,
    mulf (from_vec p) (from_vec q) = Ok (from_vec (smul p q)) ->
    imul C cmul mulf (from_vec p) (from_vec q) = Ok (from_vec (smul p q)).
  Proof.
    intros mulf p q Hm. unfold imul.
    destruct (from_vec p) as [|ka a'] eqn:Ea.
    { rewrite (from_vec_smul_nil_l p q Ea). reflexivity. }
    destruct (from_vec q) as [|[kb t] b'] eqn:Eb.
    { rewrite (from_vec_smul_nil_r p q Eb). reflexivity. }
    destruct (is_empty b' && has_key0 C ((kb, t) :: b')) eqn:Econst; [|exact Hm].
    apply andb_prop in Econst. destruct Econst as [E1 E2].
    destruct b' as [|? ?]; [|discriminate E1].
    unfold has_key0 in E2. cbn [existsb fst] in E2. rewrite orb_false_r in E2.
    assert (kb = 0) by lia. subst kb.
    pose proof (from_vec_wf p) as Wa. rewrite Ea in Wa.
    pose proof (from_vec_wf q) as Wb. rewrite Eb in Wb.
    assert (Ht : t <> c0). { destruct Wb as [_ Nb]. inversion Nb; subst. assumption. }
    destruct (scale_spec (ka :: a') t Wa Ht) as [Wr Hr].
    f_equal. apply from_vec_ext. exact Wr.
    intro j. rewrite Hr. rewrite <- Ea, coeff_from_vec. unfold scoeff.
    assert (Hq : peq q [t]).
    { intro k. pose proof (coeff_from_vec q (N.of_nat k)) as Hc. rewrite Eb in Hc.
      unfold scoeff in Hc. rewrite Nat2N.id in Hc. rewrite <- Hc. cbn [get_coeff].
      destruct k; cbn [nth]. reflexivity. replace (0 =? N.of_nat (S k)) with false by lia.
      destruct k; reflexivity. }
    rewrite (smul_peq_r Crt p q [t] Hq).
    rewrite (smul_comm Crt).
    rewrite (nth_smul_cons Crt). cbn [PolySpec.smul].
    destruct (N.to_nat j); cbn [shiftc]; [|rewrite (nth_nil C c0)]; ring.
  Qed.

  Local Notation spow_nat := (spow_nat C c0 c1 cadd cmul).
  Hypothesis c1_nz : c1 <> c0.

  Lemma one_dict_from_vec : one_dict C c1 = from_vec [c1].
  Proof.
    unfold one_dict, PolyModel.from_vec. cbn [PolyModel.from_vec_aux].
    replace (cnz c1) with true by (symmetry; apply cnz_true; exact c1_nz). reflexivity.
  Qed.

  Lemma spow_nat_1 : forall p, peq (spow_nat p 1) p.
  Proof.
    intros p k. cbn [PolySpec.spow_nat]. rewrite (smul_comm Crt).
    apply (nth_smul_one_l Crt).
  Qed.

  (* a multiplier that, when it answers, answers with the product *)
  Definition mul_sound (m : dict -> dict -> res dict) : Prop :=
    forall p q r, m (from_vec p) (from_vec q) = Ok r -> r = from_vec (smul p q).

  (* [m1] answers wherever [m2] does, and the same *)
  Definition extends_on_wf (m1 m2 : dict -> dict -> res dict) : Prop :=
    forall p q r, m2 (from_vec p) (from_vec q) = Ok r -> m1 (from_vec p) (from_vec q) = Ok r.

  Lemma from_vec_spow_add : forall p a b,
    from_vec (smul (spow_nat p a) (spow_nat p b)) = from_vec (spow_nat p (a + b)).
  Proof.
    intros. apply from_vec_peq. apply (peq_sym C c0). apply (spow_nat_add Crt).
  Qed.

  Lemma mul_sound_spow : forall m, mul_sound m -> forall p a b r,
    m (from_vec (spow_nat p a)) (from_vec (spow_nat p b)) = Ok r -> r = from_vec (spow_nat p (a + b)).
  Proof. intros m Hm p a b r E. rewrite (Hm _ _ _ E). apply from_vec_spow_add. Qed.

  (* the loop `while (p != 1)` of ODictWrapper::pow is a recursion on the binary digits of p *)
  Fixpoint pow_pos (m : dict -> dict -> res dict) (tmp rs : dict) (p : positive) : res (dict * dict) :=
    match p with
    | xH => Ok (tmp, rs)
    | xO p' => do t <- m tmp tmp; pow_pos m t rs p'
    | xI p' => do r <- m rs tmp; do t <- m tmp tmp; pow_pos m t r p'
    end.

  Lemma pow_loop_pos : forall m p fuel tmp rs, (Pos.to_nat (Pos.size p) <= S fuel)%nat ->
    pow_loop C m fuel tmp rs (Npos p) = pow_pos m tmp rs p.
  Proof.
    intros m. induction p as [p IH|p IH|]; intros fuel tmp rs H; cbn [Pos.size] in H.
    - rewrite Pos2Nat.inj_succ in H. pose proof (Pos2Nat.is_pos (Pos.size p)).
      destruct fuel as [|f]; [lia|]. cbn [pow_loop pow_pos].
      replace (N.pos p~1 / 2) with (N.pos p) by (rewrite <- N.div2_div; reflexivity).
      change (N.pos p~1 =? 1) with false. change (N.even (N.pos p~1)) with false. cbv iota.
      destruct (m rs tmp); cbn [bind]; try reflexivity.
      destruct (m tmp tmp); cbn [bind]; try reflexivity. apply IH. lia.
    - rewrite Pos2Nat.inj_succ in H. pose proof (Pos2Nat.is_pos (Pos.size p)).
      destruct fuel as [|f]; [lia|]. cbn [pow_loop pow_pos].
      replace (N.pos p~0 / 2) with (N.pos p) by (rewrite <- N.div2_div; reflexivity).
      change (N.pos p~0 =? 1) with false. change (N.even (N.pos p~0)) with true. cbv iota.
      destruct (m tmp tmp); cbn [bind]; try reflexivity. apply IH. lia.
    - destruct fuel; reflexivity.
  Qed.

  Lemma pow_pos_eq : forall m a p,
    pow C c1 m a (Npos p) = (do tr <- pow_pos m a (one_dict C c1) p; m (snd tr) (fst tr)).
  Proof.
    intros. unfold pow. change (N.pos p =? 0) with false. cbv iota.
    rewrite pow_loop_pos. reflexivity. cbn [N.size N.to_nat]. lia.
  Qed.

  (* soundness, and a multiplier that extends a sound one replays its run *)
  Lemma pow_pos_sim : forall m1 m2, mul_sound m2 -> extends_on_wf m1 m2 ->
    forall p q (t r : nat) out,
      pow_pos m2 (from_vec (spow_nat p t)) (from_vec (spow_nat p r)) q = Ok out ->
      pow_pos m1 (from_vec (spow_nat p t)) (from_vec (spow_nat p r)) q = Ok out /\
      exists t' r', out = (from_vec (spow_nat p t'), from_vec (spow_nat p r'))
                    /\ (t' + r' = t * Pos.to_nat q + r)%nat.
  Proof.
    intros m1 m2 Hs Hext p. induction q as [q IH|q IH|]; intros t r out H; cbn [pow_pos] in *.
    - destruct (m2 (from_vec (spow_nat p r)) (from_vec (spow_nat p t))) as [r2| | |] eqn:Er;
        cbn [bind] in H; try discriminate H.
      destruct (m2 (from_vec (spow_nat p t)) (from_vec (spow_nat p t))) as [t2| | |] eqn:Et;
        cbn [bind] in H; try discriminate H.
      rewrite (Hext _ _ _ Er), (Hext _ _ _ Et). cbn [bind].
      apply (mul_sound_spow m2 Hs) in Er, Et. subst r2 t2.
      destruct (IH _ _ _ H) as [H1 (t' & r' & Eo & Hsum)]. split. exact H1.
      exists t', r'. split. exact Eo. rewrite Pos2Nat.inj_xI. clear - Hsum. lia.
    - destruct (m2 (from_vec (spow_nat p t)) (from_vec (spow_nat p t))) as [t2| | |] eqn:Et;
        cbn [bind] in H; try discriminate H.
      rewrite (Hext _ _ _ Et). cbn [bind].
      apply (mul_sound_spow m2 Hs) in Et. subst t2.
      destruct (IH _ _ _ H) as [H1 (t' & r' & Eo & Hsum)]. split. exact H1.
      exists t', r'. split. exact Eo. rewrite Pos2Nat.inj_xO. clear - Hsum. lia.
    - split. exact H. exists t, r. split. injection H as <-. reflexivity. rewrite Pos2Nat.inj_1. lia.
  Qed.

  (* whenever a sound multiplier carries the run through, the result is the
     power, and every multiplier that extends it computes the same *)
  Theorem pow_sim : forall m1 m2, mul_sound m2 -> extends_on_wf m1 m2 -> forall p n out,
    pow C c1 m2 (from_vec p) n = Ok out ->
    out = from_vec (spow C c0 c1 cadd cmul p n) /\ pow C c1 m1 (from_vec p) n = Ok out.
  Proof.
    intros m1 m2 Hs Hext p [|q] out H.
    - split; [|exact H]. inversion H. apply one_dict_from_vec.
    - rewrite pow_pos_eq in *. rewrite one_dict_from_vec in *.
      rewrite (from_vec_peq p (spow_nat p 1)) in * by (apply (peq_sym C c0); apply spow_nat_1).
      change [c1] with (spow_nat p 0) in *.
      destruct (pow_pos m2 (from_vec (spow_nat p 1)) (from_vec (spow_nat p 0)) q) as [tr| | |] eqn:El;
        cbn [bind] in H; try discriminate H.
      destruct (pow_pos_sim m1 m2 Hs Hext _ _ _ _ _ El) as [El1 (t' & r' & -> & Hsum)].
      rewrite El1. cbn [bind fst snd] in *. split; [|apply Hext; exact H].
      rewrite (mul_sound_spow m2 Hs _ _ _ _ H). unfold spow. do 2 f_equal. lia.
  Qed.

  (* a multiplier that accepts every product p^i * p^j with i + j <= n carries pow(p, n) through *)
  Lemma pow_pos_run : forall chk p n,
    (forall i j, (i + j <= n)%nat ->
       chk (from_vec (spow_nat p i)) (from_vec (spow_nat p j)) = Ok (from_vec (smul (spow_nat p i) (spow_nat p j)))) ->
    forall q (t r : nat), (t * Pos.to_nat q + r <= n)%nat ->
    exists t' r', pow_pos chk (from_vec (spow_nat p t)) (from_vec (spow_nat p r)) q
                  = Ok (from_vec (spow_nat p t'), from_vec (spow_nat p r'))
                  /\ (t' + r' = t * Pos.to_nat q + r)%nat.
  Proof.
    intros chk p n Hchk. induction q as [q IH|q IH|]; intros t r H; cbn [pow_pos].
    - rewrite Pos2Nat.inj_xI in H. rewrite Hchk, from_vec_spow_add by (clear - H; nia). cbn [bind].
      rewrite Hchk, from_vec_spow_add by (clear - H; nia). cbn [bind].
      destruct (IH (t + t)%nat (r + t)%nat) as (t' & r' & E & Hsum). clear - H. lia.
      exists t', r'. split. exact E. rewrite Pos2Nat.inj_xI. clear - Hsum. lia.
    - rewrite Pos2Nat.inj_xO in H. rewrite Hchk, from_vec_spow_add by (clear - H; nia). cbn [bind].
      destruct (IH (t + t)%nat r) as (t' & r' & E & Hsum). clear - H. lia.
      exists t', r'. split. exact E. rewrite Pos2Nat.inj_xO. clear - Hsum. lia.
    - exists t, r. split. reflexivity. rewrite Pos2Nat.inj_1. lia.
  Qed.

  Theorem pow_run : forall chk p n,
    (forall i j, (i + j <= N.to_nat n)%nat ->
       chk (from_vec (spow_nat p i)) (from_vec (spow_nat p j)) = Ok (from_vec (smul (spow_nat p i) (spow_nat p j)))) ->
    pow C c1 chk (from_vec p) n = Ok (from_vec (spow C c0 c1 cadd cmul p n)).
  Proof.
    intros chk p [|q] Hchk.
    - unfold pow. cbn [N.eqb]. rewrite one_dict_from_vec. reflexivity.
    - rewrite pow_pos_eq, one_dict_from_vec.
      rewrite (from_vec_peq p (spow_nat p 1)) by (apply (peq_sym C c0); apply spow_nat_1).
      change [c1] with (spow_nat p 0).
      destruct (pow_pos_run chk p _ Hchk q 1%nat 0%nat) as (t' & r' & E & Hsum). cbn [N.to_nat]. lia.
      rewrite E. cbn [bind fst snd]. rewrite Hchk, from_vec_spow_add by (cbn [N.to_nat]; lia).
      unfold spow. do 3 f_equal. cbn [N.to_nat]. lia.
  Qed.

  (* termination: `while (p != 1)` (p >= 1) halves p, and the fuel is its bit length *)
  Lemma pow_pos_fuel : forall m, (forall x y, m x y <> ErrFuel) ->
    forall p tmp rs, pow_pos m tmp rs p <> ErrFuel.
  Proof.
    intros m Hm. induction p as [p IH|p IH|]; intros tmp rs; cbn [pow_pos]; [| |discriminate].
    - destruct (m rs tmp) as [r2| | |] eqn:Er; cbn [bind]; try discriminate; [|destruct (Hm _ _ Er)].
      destruct (m tmp tmp) as [t2| | |] eqn:Et; cbn [bind]; try discriminate; [apply IH|destruct (Hm _ _ Et)].
    - destruct (m tmp tmp) as [t2| | |] eqn:Et; cbn [bind]; try discriminate; [apply IH|destruct (Hm _ _ Et)].
  Qed.

  Theorem pow_terminates : forall m, (forall x y, m x y <> ErrFuel) ->
    forall a n, pow C c1 m a n <> ErrFuel.
  Proof.
    intros m Hm a [|q]. discriminate. rewrite pow_pos_eq.
    destruct (pow_pos m a (one_dict C c1) q) as [tr| | |] eqn:El; cbn [bind]; try discriminate.
    apply Hm. destruct (pow_pos_fuel m Hm _ _ _ El).
  Qed.

  Variable cdivx : C -> C -> option C.
  Hypothesis cdivx_spec : forall x y q, y <> c0 -> (cdivx x y = Some q <-> x = q ⊗ y).

  Local Notation mono := (mono C c0).
  Local Notation sc p k := (scoeff C c0 p k).

  Lemma usub_small : forall x y, y <= x -> x < W32 -> usub x y = x - y.
  Proof.
    intros x y H1 H2. unfold usub. rewrite (N.mod_small y) by lia.
    replace (x + W32 - y) with ((x - y) + 1 * W32) by lia.
    rewrite N.mod_add by (unfold W32; lia). apply N.mod_small. lia.
  Qed.

  Lemma from_vec_mono : forall k q, q <> c0 -> from_vec (mono k q) = [(N.of_nat k, q)].
  Proof.
    intros k q Hq. symmetry. apply from_vec_ext.
    - split. cbn. split; [constructor | exact I]. constructor. exact Hq. constructor.
    - intro j. cbn [get_coeff]. unfold scoeff. rewrite (nth_mono C c0).
      destruct (N.of_nat k =? j) eqn:E.
      + replace (Nat.eqb (N.to_nat j) k) with true by (symmetry; apply Nat.eqb_eq; lia). reflexivity.
      + replace (Nat.eqb (N.to_nat j) k) with false by (symmetry; apply Nat.eqb_neq; lia). reflexivity.
  Qed.

  Lemma set_term_prepend : forall (rq : dict) k q, above k rq -> set_term rq k q = (k, q) :: rq.
  Proof.
    intros [|[k' v'] rq] k q A; cbn [set_term]. reflexivity.
    inversion A; subst. cbn [fst] in *.
    replace (k' <? k) with false by lia. replace (k' =? k) with false by lia. reflexivity.
  Qed.

  (* the leading term of a product in an integral domain *)
  Lemma smul_lead : forall p r, from_vec p <> [] -> from_vec r <> [] ->
    sc (smul p r) (degree (from_vec p) + degree (from_vec r))
      = sc p (degree (from_vec p)) ⊗ sc r (degree (from_vec r))
    /\ sc (smul p r) (degree (from_vec p) + degree (from_vec r)) <> c0.
  Proof.
    intros p r Hp Hr. split. apply smul_at_degrees. rewrite smul_at_degrees. intro Z.
    destruct (Cintegral _ _ Z) as [Z1|Z1]; [apply (degree_top_nonzero p Hp) | apply (degree_top_nonzero r Hr)]; exact Z1.
  Qed.

  Definition multiple (pa pc : list C) : Prop := exists R, peq pc (smul pa R).

  Lemma peq_sc : forall p q, peq p q -> forall k, sc p k = sc q k.
  Proof. intros p q H k. unfold scoeff. apply H. Qed.

  (* a non-zero multiple of pa has at least the degree of pa, and its leading coefficient is a
     multiple of pa's *)
  Lemma multiple_lead : forall pa pc R, from_vec pa <> [] -> from_vec pc <> [] -> peq pc (smul pa R) ->
    from_vec R <> [] /\
    degree (from_vec pc) = degree (from_vec pa) + degree (from_vec R) /\
    sc pc (degree (from_vec pc)) = sc R (degree (from_vec R)) ⊗ sc pa (degree (from_vec pa)).
  Proof.
    intros pa pc R Ha Hc HR.
    assert (HRne : from_vec R <> []).
    { intro E. apply Hc. rewrite (from_vec_peq _ _ HR). apply from_vec_smul_nil_r. exact E. }
    destruct (smul_lead pa R Ha HRne) as [E1 E2].
    assert (Hdeg : degree (from_vec pc) = degree (from_vec pa) + degree (from_vec R)).
    { apply N.le_antisymm.
      - destruct (N.le_gt_cases (degree (from_vec pc)) (degree (from_vec pa) + degree (from_vec R))) as [L|L].
        exact L. exfalso. apply (degree_top_nonzero pc Hc). rewrite (peq_sc _ _ HR).
        apply smul_above_degrees. exact L.
      - apply (nonzero_le_degree pc). rewrite (peq_sc _ _ HR). exact E2. }
    split. exact HRne. split. exact Hdeg.
    rewrite Hdeg, (peq_sc _ _ HR), E1. ring.
  Qed.

  Lemma smul_cancel : forall pa R, from_vec pa <> [] -> (forall k, cf (smul pa R) k = c0) -> from_vec R = [].
  Proof.
    intros pa R Ha H. destruct (from_vec R) eqn:E. reflexivity.
    exfalso. assert (HRne : from_vec R <> []) by (rewrite E; discriminate).
    destruct (smul_lead pa R Ha HRne) as [_ E2]. apply E2. unfold scoeff. apply H.
  Qed.

  Section Divides.
    Variable m : dict -> dict -> res dict.
    Hypothesis m_sound : mul_sound m.
    Variable pa : list C.
    Hypothesis pa_ne : from_vec pa <> [].
    Local Notation a := (from_vec pa).
    Local Notation da := (degree (from_vec pa)).
    Local Notation div_loop := (div_loop C c0 csub copp ceqb cdivx m).

    Lemma lc_a_nonzero : get_lc C c0 a <> c0.
    Proof. rewrite get_lc_from_vec. apply degree_top_nonzero. exact pa_ne. Qed.

    (* one step of the loop, on coefficient lists *)
    Lemma div_step : forall pc q,
      from_vec pc <> [] -> da <= degree (from_vec pc) -> degree (from_vec pc) < W32 ->
      cdivx (get_lc C c0 (from_vec pc)) (get_lc C c0 a) = Some q ->
      let k := usub (degree (from_vec pc)) da in
      let pc1 := ssub pc (smul pa (mono (N.to_nat k) q)) in
      k = degree (from_vec pc) - da /\ q <> c0 /\
      clean [(k, q)] = from_vec (mono (N.to_nat k) q) /\
      (from_vec pc1 = [] \/ degree (from_vec pc1) < degree (from_vec pc)).
    Proof.
      intros pc q Hc Hd Hw Hq k pc1.
      assert (Ek : k = degree (from_vec pc) - da) by (apply usub_small; assumption).
      apply cdivx_spec in Hq; [|apply lc_a_nonzero].
      rewrite !get_lc_from_vec in Hq.
      assert (Hqn : q <> c0).
      { intro Z. apply (degree_top_nonzero pc Hc). rewrite Hq, Z. ring. }
      assert (EM : from_vec (mono (N.to_nat k) q) = [(k, q)]).
      { rewrite from_vec_mono by exact Hqn. rewrite N2Nat.id. reflexivity. }
      split. exact Ek. split. exact Hqn. split.
      { rewrite EM. apply clean_wf_id. constructor. exact Hqn. constructor. }
      destruct (from_vec pc1) eqn:E1. left; reflexivity. right. rewrite <- E1.
      apply degree_lt_of_vanish. rewrite E1; discriminate.
      (* above the degree of pc both operands vanish; at it the leading terms cancel *)
      intros j Hj. unfold pc1, scoeff, PolySpec.ssub. rewrite (nth_sadd Crt), (nth_sneg Crt).
      fold (sc pc j). fold (sc (smul pa (mono (N.to_nat k) q)) j).
      assert (Dk : degree (from_vec (mono (N.to_nat k) q)) = k) by (rewrite EM; reflexivity).
      destruct (N.eq_dec j (degree (from_vec pc))) as [Ej|Ej].
      - replace j with (da + degree (from_vec (mono (N.to_nat k) q))) by (rewrite Dk; clear - Ej Ek Hd; lia).
        rewrite smul_at_degrees, Dk. replace (da + k) with (degree (from_vec pc)) by (clear - Ek Hd; lia).
        rewrite Hq. unfold scoeff at 3. rewrite (nth_mono C c0), Nat.eqb_refl. ring.
      - rewrite (degree_above_zero pc j) by (clear - Hj Ej; lia).
        rewrite smul_above_degrees by (rewrite Dk; clear - Hj Ej Ek Hd; lia). ring.
    Qed.

    Lemma multiple_step : forall pc M, multiple pa (ssub pc (smul pa M)) <-> multiple pa pc.
    Proof.
      intros pc M. split; intros [R HR].
      - exists (sadd R M). intro j. specialize (HR j). unfold PolySpec.ssub in HR.
        rewrite (nth_sadd Crt), (nth_sneg Crt) in HR.
        rewrite (nth_smul_sadd_r Crt). rewrite <- HR. ring.
      - exists (sadd R (sneg M)). intro j. specialize (HR j). unfold PolySpec.ssub.
        rewrite (nth_sadd Crt), (nth_sneg Crt).
        rewrite (nth_smul_sadd_r Crt), (nth_smul_sneg_r Crt).
        rewrite HR. ring.
    Qed.

    Lemma div_continue_true : forall b : dict, div_continue C a b = true <-> b <> [] /\ da <= degree b.
    Proof.
      intros b. unfold div_continue. destruct b as [|kv b]; cbn [is_empty negb andb].
      - split. discriminate. intros [H _]. congruence.
      - rewrite N.leb_le. split. intro H. split. discriminate. exact H. intros [_ H]. exact H.
    Qed.

    (* the loop started on remainder pc and quotient rq has stopped with remainder b' and quotient rq':
       rq' is rq plus a polynomial D, pc = a * D + b', and b' is zero or of smaller degree than a *)
    Definition div_post (pc : list C) (rq b' rq' : dict) : Prop :=
      exists D pr, wf rq' /\ (forall j, coeff rq' j = coeff rq j ⊕ sc D j) /\
                   b' = from_vec pr /\ peq pc (sadd (smul pa D) pr) /\
                   (b' = [] \/ degree b' < da).

    (* leaving the loop: quotient so far unchanged, the remainder is what is left *)
    Lemma div_loop_exit : forall pc (rq : dict), wf rq -> div_continue C a (from_vec pc) = false ->
      div_post pc rq (from_vec pc) rq.
    Proof.
      intros pc rq Wrq Ec. exists [], pc. split. exact Wrq. split.
      { intro j. unfold scoeff. rewrite (nth_nil C c0). ring. }
      split. reflexivity. split.
      { intro j. rewrite (nth_sadd Crt), (nth_smul_nil_r Crt). ring. }
      destruct (from_vec pc) as [|kv b] eqn:E. left; reflexivity. right.
      rewrite <- E in *.
      destruct (N.lt_ge_cases (degree (from_vec pc)) da) as [L|L]. exact L.
      exfalso. assert (div_continue C a (from_vec pc) = true).
      { apply div_continue_true. split. rewrite E. discriminate. exact L. } congruence.
    Qed.

    (* a round that subtracts a * q x^k puts q x^k in front of the quotient: what the rest of the run
       establishes for the new remainder and quotient holds for the old ones with D + q x^k *)
    Lemma div_post_step : forall pc (rq : dict) k q b' rq', above k rq ->
      div_post (ssub pc (smul pa (mono (N.to_nat k) q))) ((k, q) :: rq) b' rq' ->
      div_post pc rq b' rq'.
    Proof.
      intros pc rq k q b' rq' Habove [D1 [pr [W' [Hco [Eb [Hpq Hfin]]]]]].
      set (M := mono (N.to_nat k) q) in *.
      exists (sadd D1 M), pr. split. exact W'. split.
      { intro j. rewrite Hco. cbn [get_coeff]. unfold scoeff.
        rewrite (nth_sadd Crt). unfold M. rewrite (nth_mono C c0).
        destruct (k =? j) eqn:Ekj.
        - assert (k = j) by (clear - Ekj; lia). subst j. rewrite Nat.eqb_refl.
          rewrite (coeff_above rq k k Habove) by apply N.le_refl. ring.
        - replace (Nat.eqb (N.to_nat j) (N.to_nat k)) with false by (symmetry; apply Nat.eqb_neq; clear - Ekj; lia).
          ring. }
      split. exact Eb. split; [|exact Hfin].
      intro j. specialize (Hpq j). unfold PolySpec.ssub in Hpq.
      rewrite !(nth_sadd Crt) in *.
      rewrite (nth_sneg Crt) in Hpq.
      rewrite (nth_smul_sadd_r Crt).
      transitivity ((cf pc j ⊕ copp (cf (smul pa M) j)) ⊕ cf (smul pa M) j). ring.
      rewrite Hpq. ring.
    Qed.

    Lemma div_loop_spec : forall fuel pc (rq : dict) out,
      degree (from_vec pc) < W32 -> wf rq ->
      (from_vec pc <> [] -> Forall (fun kv => degree (from_vec pc) < fst kv + da) rq) ->
      div_loop fuel a (from_vec pc) rq = Ok out ->
      match out with
      | None => ~ multiple pa pc
      | Some (b', rq') => div_post pc rq b' rq'
      end.
    Proof.
      induction fuel as [|f IH]; intros pc rq out Hw Wrq Hab H; cbn [PolyModel.div_loop] in H;
        destruct (div_continue C a (from_vec pc)) eqn:Ec; cbn [negb] in H.
      - discriminate H.
      - inversion H; subst. apply div_loop_exit; assumption.
      - apply div_continue_true in Ec. destruct Ec as [Hne Hd].
        destruct (cdivx (get_lc C c0 (from_vec pc)) (get_lc C c0 a)) as [q|] eqn:Eq.
        + destruct (div_step pc q Hne Hd Hw Eq) as [Ek [Hqn [Ecl Hdec]]].
          set (k := usub (degree (from_vec pc)) da) in *.
          set (M := mono (N.to_nat k) q) in *.
          rewrite Ecl in H.
          destruct (m a (from_vec M)) as [prod| | |] eqn:Em; cbn [bind] in H; try discriminate H.
          rewrite (m_sound _ _ _ Em) in H.
          rewrite dict_sub_correct in H.
          assert (Hab' : Forall (fun kv => degree (from_vec pc) < fst kv + da) rq) by (apply Hab; exact Hne).
          assert (Habove : above k rq).
          { eapply Forall_impl; [|exact Hab']. cbn. intros kv Hkv. clear - Hkv Ek Hd. lia. }
          rewrite set_term_prepend in H by exact Habove.
          set (pc1 := ssub pc (smul pa M)) in *.
          assert (Wrq1 : wf ((k, q) :: rq)).
          { destruct Wrq as [Sq Nq]. split. cbn [sorted]. split; assumption. constructor; assumption. }
          assert (Hw1 : degree (from_vec pc1) < W32).
          { destruct Hdec as [E|L]. rewrite E. reflexivity. clear - L Hw. lia. }
          assert (Hab1 : from_vec pc1 <> [] ->
                         Forall (fun kv => degree (from_vec pc1) < fst kv + da) ((k, q) :: rq)).
          { intro Hne1. destruct Hdec as [E|L]. congruence.
            constructor. cbn [fst]. clear - L Ek Hd. lia.
            eapply Forall_impl; [|exact Hab']. cbn. intros kv Hkv. clear - Hkv L. lia. }
          specialize (IH pc1 ((k, q) :: rq) out Hw1 Wrq1 Hab1 H).
          destruct out as [[b' rq']|].
          * exact (div_post_step pc rq k q b' rq' Habove IH).
          * intro Hm. apply IH. apply multiple_step. exact Hm.
        + inversion H; subst. intros [R HR].
          destruct (multiple_lead pa pc R pa_ne Hne HR) as [_ [_ Hlc]].
          assert (cdivx (get_lc C c0 (from_vec pc)) (get_lc C c0 a) = Some (sc R (degree (from_vec R)))).
          { apply cdivx_spec. apply lc_a_nonzero. rewrite !get_lc_from_vec. exact Hlc. }
          congruence.
      - inversion H; subst. apply div_loop_exit; assumption.
    Qed.

    Lemma div_loop_fuel : (forall x y, m x y <> ErrFuel) ->
      forall fuel pc (rq : dict), degree (from_vec pc) < W32 ->
      (from_vec pc <> [] -> (N.to_nat (degree (from_vec pc)) < fuel)%nat) ->
      div_loop fuel a (from_vec pc) rq <> ErrFuel.
    Proof.
      intros Hm. induction fuel as [|f IH]; intros pc rq Hw Hf; cbn [PolyModel.div_loop];
        destruct (div_continue C a (from_vec pc)) eqn:Ec; cbn [negb]; try discriminate.
      - apply div_continue_true in Ec. destruct Ec as [Hne _]. specialize (Hf Hne). clear - Hf. lia.
      - apply div_continue_true in Ec. destruct Ec as [Hne Hd].
        destruct (cdivx (get_lc C c0 (from_vec pc)) (get_lc C c0 a)) as [q|] eqn:Eq; [|discriminate].
        destruct (div_step pc q Hne Hd Hw Eq) as [Ek [Hqn [Ecl Hdec]]].
        rewrite Ecl.
        destruct (m a (from_vec (mono (N.to_nat (usub (degree (from_vec pc)) da)) q))) as [prod| | |] eqn:Em;
          cbn [bind]; try discriminate.
        + rewrite (m_sound _ _ _ Em). rewrite dict_sub_correct. apply IH.
          * destruct Hdec as [E|L]. rewrite E. reflexivity. clear - L Hw. lia.
          * intro Hne1. destruct Hdec as [E|L]. congruence. specialize (Hf Hne). clear - Hf L. lia.
        + exfalso. eapply Hm; eauto.
    Qed.

    (* a multiplier that accepts the product a * q x^k at every remainder satisfying [Inv] carries
       the loop through *)
    Section Run.
      Variable Inv : list C -> Prop.
      Hypothesis Inv_degree : forall pc, Inv pc -> degree (from_vec pc) < W32.
      Hypothesis Inv_step : forall pc q, Inv pc -> from_vec pc <> [] -> da <= degree (from_vec pc) ->
        cdivx (get_lc C c0 (from_vec pc)) (get_lc C c0 a) = Some q -> q <> c0 ->
        let M := mono (N.to_nat (degree (from_vec pc) - da)) q in
        let pc1 := ssub pc (smul pa M) in
        (from_vec pc1 = [] \/ degree (from_vec pc1) < degree (from_vec pc)) ->
        m a (from_vec M) = Ok (from_vec (smul pa M)) /\ Inv pc1.

      Lemma div_loop_run : forall fuel pc (rq : dict), Inv pc ->
        (from_vec pc <> [] -> (N.to_nat (degree (from_vec pc)) < fuel)%nat) ->
        exists out, div_loop fuel a (from_vec pc) rq = Ok out.
      Proof.
        induction fuel as [|f IH]; intros pc rq Hi Hf; cbn [PolyModel.div_loop];
          destruct (div_continue C a (from_vec pc)) eqn:Ec; cbn [negb]; eauto.
        - exfalso. apply div_continue_true in Ec. destruct Ec as [Hne _]. specialize (Hf Hne). clear - Hf. lia.
        - apply div_continue_true in Ec. destruct Ec as [Hne Hd].
          destruct (cdivx (get_lc C c0 (from_vec pc)) (get_lc C c0 a)) as [q|] eqn:Eq; eauto.
          destruct (div_step pc q Hne Hd (Inv_degree pc Hi) Eq) as [Ek [Hqn [Ecl Hdec]]].
          rewrite Ecl. rewrite Ek in *.
          destruct (Inv_step pc q Hi Hne Hd Eq Hqn Hdec) as [Hm Hi'].
          rewrite Hm. cbn [bind]. rewrite dict_sub_correct. apply IH. exact Hi'.
          intro Hne1. destruct Hdec as [E|L]. congruence. specialize (Hf Hne). clear - Hf L. lia.
      Qed.

      Theorem divides_run : forall pb, Inv pb ->
        exists r, divides C c0 csub copp ceqb cdivx m a (from_vec pb) = Ok r.
      Proof.
        intros pb Hi. unfold divides. destruct (is_empty a). eauto.
        destruct (div_loop_run (S (S (N.to_nat (degree (from_vec pb))))) pb [] Hi ltac:(intros _; lia))
          as [o Ho].
        rewrite Ho. cbn [bind]. destruct o as [[b' rq']|]; eauto. destruct (is_empty b'); eauto.
      Qed.
    End Run.

    Theorem divides_sound_complete : forall pb r,
      degree (from_vec pb) < W32 ->
      divides C c0 csub copp ceqb cdivx m a (from_vec pb) = Ok r ->
      match r with
      | Some d => exists D, d = from_vec D /\ peq pb (smul pa D)
      | None => ~ multiple pa pb
      end.
    Proof using Crt ceqb_spec Cintegral c1_nz cdivx_spec m_sound pa_ne.
      intros pb r Hw H. unfold divides in H.
      replace (is_empty a) with false in H by (destruct a; [exfalso; apply pa_ne; reflexivity | reflexivity]).
      destruct (div_loop (S (S (N.to_nat (degree (from_vec pb))))) a (from_vec pb) []) as [o| | |] eqn:El;
        cbn [bind] in H; try discriminate H.
      pose proof (div_loop_spec _ pb [] o Hw (conj I (Forall_nil _)) (fun _ => Forall_nil _) El) as Hs.
      destruct o as [[b' rq']|].
      - destruct Hs as [D [pr [W' [Hco [Eb [Hpq Hfin]]]]]].
        assert (Erq : rq' = from_vec D).
        { apply from_vec_ext. exact W'. intro j. rewrite Hco. cbn [get_coeff]. ring. }
        destruct (is_empty b') eqn:Eemp.
        + inversion H; subst r. exists D. split.
          * rewrite Erq. apply clean_wf_id. apply from_vec_wf.
          * destruct b'; [|discriminate Eemp]. symmetry in Eb.
            intro j. rewrite (Hpq j), (nth_sadd Crt).
            rewrite (from_vec_nil_zero pr Eb j). ring.
        + inversion H; subst r. intros [R HR].
          assert (Hbne : from_vec pr <> []) by (rewrite <- Eb; destruct b'; [discriminate Eemp | discriminate]).
          assert (Hmul : peq pr (smul pa (sadd R (sneg D)))).
          { intro j. specialize (Hpq j). specialize (HR j).
            rewrite (nth_sadd Crt) in Hpq.
            rewrite (nth_smul_sadd_r Crt), (nth_smul_sneg_r Crt).
            rewrite <- HR, Hpq. ring. }
          destruct (multiple_lead pa pr _ pa_ne Hbne Hmul) as [_ [Hdeg _]].
          destruct Hfin as [E|L]. subst b'. congruence. rewrite Eb in L. lia.
      - inversion H; subst r. exact Hs.
    Qed.

    Theorem divides_complete : forall pb Q r,
      degree (from_vec pb) < W32 -> peq pb (smul pa Q) ->
      divides C c0 csub copp ceqb cdivx m a (from_vec pb) = Ok r -> r = Some (from_vec Q).
    Proof using Crt ceqb_spec Cintegral c1_nz cdivx_spec m_sound pa_ne.
      intros pb Q r Hw HQ H. pose proof (divides_sound_complete pb r Hw H) as Hs.
      destruct r as [d|].
      - destruct Hs as [D [Ed HD]]. subst d. f_equal. apply from_vec_peq.
        assert (Hz : from_vec (sadd D (sneg Q)) = []).
        { apply (smul_cancel pa). exact pa_ne. intro k.
          rewrite (nth_smul_sadd_r Crt), (nth_smul_sneg_r Crt).
          rewrite <- (HD k), <- (HQ k). ring. }
        intro k. pose proof (from_vec_nil_zero _ Hz k) as Hk.
        rewrite (nth_sadd Crt), (nth_sneg Crt) in Hk.
        transitivity ((cf D k ⊕ copp (cf Q k)) ⊕ cf Q k). ring. rewrite Hk. ring.
      - exfalso. apply Hs. exists Q. exact HQ.
    Qed.

    Theorem divides_terminates : (forall x y, m x y <> ErrFuel) -> forall pb,
      degree (from_vec pb) < W32 ->
      divides C c0 csub copp ceqb cdivx m a (from_vec pb) <> ErrFuel.
    Proof.
      intros Hm pb Hw. unfold divides. destruct (is_empty a). discriminate.
      destruct (div_loop (S (S (N.to_nat (degree (from_vec pb))))) a (from_vec pb) []) as [o| | |] eqn:El;
        cbn [bind]; try discriminate.
      - destruct o as [[b' rq']|]. destruct (is_empty b'); discriminate. discriminate.
      - exfalso. revert El. apply div_loop_fuel. exact Hm. exact Hw. intros _. lia.
    Qed.
  End Divides.

  Lemma clean_single : forall k q, exists l, clean [(k, q)] = from_vec l.
  Proof.
    intros k q. rewrite clean_cons. destruct (cnz q) eqn:E.
    - exists (mono (N.to_nat k) q). rewrite from_vec_mono by (apply cnz_true; exact E).
      rewrite N2Nat.id. reflexivity.
    - exists []. reflexivity.
  Qed.

  Lemma div_loop_mono : forall (m1 m2 : dict -> dict -> res dict),
    mul_sound m2 -> extends_on_wf m1 m2 ->
    forall fuel pa pb rq out,
      div_loop C c0 csub copp ceqb cdivx m2 fuel (from_vec pa) (from_vec pb) rq = Ok out ->
      div_loop C c0 csub copp ceqb cdivx m1 fuel (from_vec pa) (from_vec pb) rq = Ok out.
  Proof.
    intros m1 m2 Hs Hext. induction fuel as [|f IH]; intros pa pb rq out H; cbn [PolyModel.div_loop] in *.
    - exact H.
    - destruct (negb (div_continue C (from_vec pa) (from_vec pb))). exact H.
      destruct (cdivx (get_lc C c0 (from_vec pb)) (get_lc C c0 (from_vec pa))) as [q|]; [|exact H].
      destruct (clean_single (usub (degree (from_vec pb)) (degree (from_vec pa))) q) as [l El].
      rewrite El in *.
      destruct (m2 (from_vec pa) (from_vec l)) as [prod| | |] eqn:E; cbn [bind] in H; try discriminate H.
      rewrite (Hext _ _ _ E). cbn [bind]. rewrite (Hs _ _ _ E) in *.
      rewrite dict_sub_correct in *. apply IH. exact H.
  Qed.

  Lemma divides_mono : forall (m1 m2 : dict -> dict -> res dict),
    mul_sound m2 -> extends_on_wf m1 m2 ->
    forall pa pb out, divides C c0 csub copp ceqb cdivx m2 (from_vec pa) (from_vec pb) = Ok out ->
                      divides C c0 csub copp ceqb cdivx m1 (from_vec pa) (from_vec pb) = Ok out.
  Proof.
    intros m1 m2 Hs Hext pa pb out H. unfold divides in *. destruct (is_empty (from_vec pa)). exact H.
    destruct (PolyModel.div_loop C c0 csub copp ceqb cdivx m2 (S (S (N.to_nat (degree (from_vec pb)))))
                (from_vec pa) (from_vec pb) []) as [o| | |] eqn:El;
      cbn [bind] in H; try discriminate H.
    rewrite (div_loop_mono m1 m2 Hs Hext _ _ _ _ _ El). cbn [bind]. exact H.
  Qed.

  (* exact division with the library's multiplier: whenever the run with a sound
     multiplier answers, every multiplier that extends it gives the same answer, and it is right *)
  Theorem divides_sim : forall m1 m2, mul_sound m2 -> extends_on_wf m1 m2 -> forall pa pb r,
    degree (from_vec pb) < W32 ->
    divides C c0 csub copp ceqb cdivx m2 (from_vec pa) (from_vec pb) = Ok r ->
    divides C c0 csub copp ceqb cdivx m1 (from_vec pa) (from_vec pb) = Ok r /\
    match r with
    | Some d => from_vec pa <> [] /\ exists D, d = from_vec D /\ peq pb (smul pa D)
    | None => from_vec pa = [] \/ ~ exists D, peq pb (smul pa D)
    end.
  Proof.
    intros m1 m2 Hs Hext pa pb r Hw H. split. exact (divides_mono m1 m2 Hs Hext pa pb r H).
    destruct (from_vec pa) as [|kv a'] eqn:E.
    - inversion H. left. reflexivity.
    - assert (Hne : from_vec pa <> []) by (rewrite E; discriminate). rewrite <- E in *.
      pose proof (divides_sound_complete m2 Hs pa Hne pb r Hw H) as S.
      destruct r as [d|]. split; assumption. right. exact S.
  Qed.

  Theorem divides_sim_complete : forall m1 m2, mul_sound m2 -> extends_on_wf m1 m2 -> forall pa pb Q r,
    degree (from_vec pb) < W32 -> from_vec pa <> [] -> peq pb (smul pa Q) ->
    divides C c0 csub copp ceqb cdivx m2 (from_vec pa) (from_vec pb) = Ok r ->
    divides C c0 csub copp ceqb cdivx m1 (from_vec pa) (from_vec pb) = Ok (Some (from_vec Q)).
  Proof.
    intros m1 m2 Hs Hext pa pb Q r Hw Hne HQ H.
    rewrite (divides_complete m2 Hs pa Hne pb Q r Hw HQ H) in H.
    exact (divides_mono m1 m2 Hs Hext pa pb _ H).
  Qed.

  (* a product that is from_vec of the schoolbook product wherever a limit [ok] holds is commutative
     and associative on canonical dictionaries, since those are determined by their coefficients *)
  Section MulLaws.
    Variable mul : dict -> dict -> res dict.
    Variable ok : dict -> dict -> Prop.
    Hypothesis mul_ok : forall p q, ok (from_vec p) (from_vec q) ->
      mul (from_vec p) (from_vec q) = Ok (from_vec (smul p q)).

    Theorem mul_comm_structural : forall a b, wf a -> wf b -> ok a b -> ok b a -> mul a b = mul b a.
    Proof.
      intros a b Wa Wb Fab Fba. rewrite <- (from_vec_dense a Wa), <- (from_vec_dense b Wb) in *.
      rewrite (mul_ok _ _ Fab), (mul_ok _ _ Fba). f_equal. apply from_vec_peq.
      intro k. apply (smul_comm Crt).
    Qed.

    Theorem mul_assoc_structural : forall a b c ab bc, wf a -> wf b -> wf c ->
      ok a b -> ok b c -> mul a b = Ok ab -> mul b c = Ok bc -> ok ab c -> ok a bc ->
      mul ab c = mul a bc.
    Proof.
      intros a b c ab bc Wa Wb Wc Fab Fbc Hab Hbc F1 F2.
      rewrite <- (from_vec_dense a Wa), <- (from_vec_dense b Wb), <- (from_vec_dense c Wc) in *.
      rewrite (mul_ok _ _ Fab) in Hab. injection Hab as <-.
      rewrite (mul_ok _ _ Fbc) in Hbc. injection Hbc as <-.
      rewrite (mul_ok _ _ F1), (mul_ok _ _ F2). f_equal. apply from_vec_peq.
      intro k. apply (smul_assoc Crt).
    Qed.
  End MulLaws.
End DictProofs.
