(* C21 -- the theorems of PolyDict.v / PolyKron.v / PolyFits.v at the two coefficient rings of the library:
   integers (UIntDict / UIntPoly) and canonical rationals (URatDict / URatPoly). *)
From SE Require Import Base.Prelude C21.PolyModel C21.PolySpec C21.PolyList C21.PolyDict C21.PolyKron C21.PolyFits.
From Coq Require Import Lia ZifyBool ZifyNat ZifyN QArith Qcanon Field.

Section IntInstance.
Local Open Scope Z_scope.

Lemma Zintegral : forall x y : Z, x * y = 0 -> x = 0 \/ y = 0.
Proof. intros. apply Z.mul_eq_0. assumption. Qed.
Lemma Zone_nz : 1 <> 0.
Proof. discriminate. Qed.

Lemma zdivx_spec : forall x y q : Z, y <> 0 -> (zdivx x y = Some q <-> x = q * y).
Proof.
  intros x y q Hy. unfold zdivx. cbv zeta.
  change (snd (Z.quotrem x y)) with (Z.rem x y). change (fst (Z.quotrem x y)) with (Z.quot x y).
  pose proof (Z.quot_rem' x y) as E. split.
  - destruct (Z.rem x y =? 0) eqn:Er; [|discriminate]. intro H. inversion H; subst. lia.
  - intro H. subst x. rewrite Z.rem_mul by exact Hy. cbn. rewrite Z.quot_mul by exact Hy. reflexivity.
Qed.

(* what [eapply] of a theorem of PolyDict.v leaves open at Z: the hypotheses of its section *)
Ltac zi := try exact Zth; try exact Zeqb_spec; try exact Zintegral; try exact Zone_nz;
           try exact zdivx_spec; try exact zofN; try exact 0.

(* representation: from_vec yields canonical dictionaries; every canonical dictionary is one *)
Theorem z_repr :
  (forall p, zwf (zfrom_vec p)) /\
  (forall p k, zcoeff (zfrom_vec p) k = zscoeff p k) /\
  (forall d, zwf d -> zfrom_vec (zdense d) = d) /\
  (forall p q, zpeq p q -> zfrom_vec p = zfrom_vec q) /\
  (forall a b, zwf a -> zwf b -> (forall k, zcoeff a k = zcoeff b k) -> a = b).
Proof.
  repeat split.
  - apply z_from_vec_wf.
  - apply z_from_vec_wf.
  - intros. eapply coeff_from_vec; zi.
  - apply z_from_vec_dense.
  - apply z_from_vec_peq.
  - intros. eapply dict_ext; zi; eauto.
Qed.

Theorem z_degree_lc : forall p,
  is_degree Z 0 p (degree (zfrom_vec p)) /\ zlc (zfrom_vec p) = zscoeff p (degree (zfrom_vec p)).
Proof. intro p. split. eapply degree_from_vec; zi. eapply get_lc_from_vec; zi. Qed.

Theorem z_add_sub_neg : forall p q,
  zadd (zfrom_vec p) (zfrom_vec q) = zfrom_vec (zsadd p q) /\
  zsub (zfrom_vec p) (zfrom_vec q) = zfrom_vec (zssub p q) /\
  zneg (zfrom_vec p) = zfrom_vec (zsneg p).
Proof.
  intros p q. split; [|split].
  - eapply dict_add_correct; zi.
  - eapply dict_sub_correct; zi.
  - eapply dict_neg_correct; zi.
Qed.

Theorem z_gmul : forall p q, (degree (zfrom_vec p) + degree (zfrom_vec q) < W32)%N ->
  zgmul (zfrom_vec p) (zfrom_vec q) = zfrom_vec (zsmul p q).
Proof. apply z_gmul_correct. Qed.

Theorem kronecker_correct : forall p q : list Z,
  fits_u32 (zfrom_vec p) (zfrom_vec q) = true ->
  kmul (zfrom_vec p) (zfrom_vec q) = Ok (zfrom_vec (zsmul p q)).
Proof. apply kmul_correct. Qed.

Theorem z_mul_upoly : forall p q : list Z,
  fits_u32 (zfrom_vec p) (zfrom_vec q) = true ->
  zimul (zfrom_vec p) (zfrom_vec q) = Ok (zfrom_vec (zsmul p q)).
Proof.
  intros p q H. unfold zimul. eapply imul_correct; zi. apply kmul_correct. exact H.
Qed.

Theorem z_eval_diff : forall p x,
  zeval (zfrom_vec p) x = zseval p x /\ zdiff (zfrom_vec p) = zfrom_vec (zsdiff p).
Proof.
  intros p x. split. apply z_poly_eval_correct. eapply dict_diff_correct; zi.
Qed.

(* the checked generic product is sound and is what UIntDict::mul computes *)
Lemma zgmul_chk_ok : forall p q, fits_u32 (zfrom_vec p) (zfrom_vec q) = true ->
  zgmul_chk (zfrom_vec p) (zfrom_vec q) = Ok (zfrom_vec (zsmul p q)).
Proof.
  intros p q F. unfold zgmul_chk. rewrite F. f_equal. unfold zfrom_vec in *.
  destruct (zfv_nonempty_cases p) as [Ea|Na].
  { rewrite z_from_vec_smul_nil_l, Ea by exact Ea. reflexivity. }
  destruct (zfv_nonempty_cases q) as [Eb|Nb].
  { rewrite z_from_vec_smul_nil_r, Eb by exact Eb. unfold zgmul, gmul.
    destruct (from_vec Z 0 Z.eqb p); reflexivity. }
  apply z_gmul_correct. unfold fits_u32 in F.
  destruct (max_abs_spec _ Na) as [A [EA _]]. destruct (max_abs_spec _ Nb) as [B [EB _]].
  rewrite EA, EB in F. lia.
Qed.

Lemma zgmul_chk_sound : mul_sound Z 0 Z.add Z.mul Z.eqb zgmul_chk.
Proof.
  intros p q r H. change (from_vec Z 0 Z.eqb) with zfrom_vec in *.
  assert (F : fits_u32 (zfrom_vec p) (zfrom_vec q) = true).
  { unfold zgmul_chk in H. destruct (fits_u32 _ _); [reflexivity | discriminate H]. }
  rewrite (zgmul_chk_ok p q F) in H. injection H as <-. reflexivity.
Qed.

Lemma kmul_extends : extends_on_wf Z 0 Z.eqb kmul zgmul_chk.
Proof.
  intros p q r H. rewrite (zgmul_chk_sound p q r H).
  unfold zgmul_chk in H.
  destruct (fits_u32 (from_vec Z 0 Z.eqb p) (from_vec Z 0 Z.eqb q)) eqn:F; [|discriminate H].
  apply kmul_correct. exact F.
Qed.

Lemma is_ok_inv : forall A (r : res A), is_ok r = true -> exists a, r = Ok a.
Proof. intros A [a| | |] H; try discriminate H. eauto. Qed.

Theorem z_pow : forall p n,
  zpow_fits (zfrom_vec p) n = true -> zpow (zfrom_vec p) n = Ok (zfrom_vec (zspow p n)).
Proof.
  intros p n H. unfold zpow_fits in H. apply is_ok_inv in H. destruct H as [out H].
  assert (E : out = zfrom_vec (zspow p n) /\ zpow (zfrom_vec p) n = Ok out).
  { eapply pow_sim; zi. apply zgmul_chk_sound. apply kmul_extends. exact H. }
  destruct E as [<- E]. exact E.
Qed.

Theorem z_pow_zero : forall p, zpow (zfrom_vec p) 0 = Ok (zfrom_vec [1]).
Proof. intro p. reflexivity. Qed.

Theorem z_divides : forall pa pb,
  zdivides_fits (zfrom_vec pa) (zfrom_vec pb) = true -> (degree (zfrom_vec pb) < W32)%N ->
  exists r, zdivides (zfrom_vec pa) (zfrom_vec pb) = Ok r /\
    match r with
    | Some d => zfrom_vec pa <> [] /\ exists D, d = zfrom_vec D /\ zpeq pb (zsmul pa D)
    | None => zfrom_vec pa = [] \/ ~ exists D, zpeq pb (zsmul pa D)
    end.
Proof.
  intros pa pb H Hw. unfold zdivides_fits in H. apply is_ok_inv in H. destruct H as [r H].
  exists r. eapply divides_sim; zi. apply zgmul_chk_sound. apply kmul_extends. exact Hw. exact H.
Qed.

(* uniqueness: an exact quotient is the one returned *)
Theorem z_divides_complete : forall pa pb Q,
  zdivides_fits (zfrom_vec pa) (zfrom_vec pb) = true -> (degree (zfrom_vec pb) < W32)%N ->
  zfrom_vec pa <> [] -> zpeq pb (zsmul pa Q) ->
  zdivides (zfrom_vec pa) (zfrom_vec pb) = Ok (Some (zfrom_vec Q)).
Proof.
  intros pa pb Q H Hw Hne HQ. unfold zdivides_fits in H. apply is_ok_inv in H. destruct H as [r H].
  eapply divides_sim_complete; zi. apply zgmul_chk_sound. apply kmul_extends. exact Hw. exact Hne. exact HQ. exact H.
Qed.

(* termination of the two fuelled loops whatever the multiplier answers *)
Theorem z_loops_terminate :
  (forall m, (forall x y, m x y <> ErrFuel) -> forall a n, pow Z 1 m a n <> ErrFuel) /\
  (forall pa pb, zfrom_vec pa <> [] -> (degree (zfrom_vec pb) < W32)%N ->
     divides Z 0 Z.sub Z.opp Z.eqb zdivx zgmul_chk (zfrom_vec pa) (zfrom_vec pb) <> ErrFuel).
Proof.
  split.
  - intros m Hm a n. eapply pow_terminates; zi. exact Hm.
  - intros pa pb Hne Hw. eapply divides_terminates; zi. apply zgmul_chk_sound. exact Hne.
    intros x y. unfold zgmul_chk. destruct (fits_u32 x y); discriminate. exact Hw.
Qed.
End IntInstance.

Section RatInstance.
Local Open Scope Qc_scope.

Lemma qeqb_spec : forall x y : Qc, qeqb x y = true <-> x = y.
Proof.
  intros x y. unfold qeqb. rewrite Qeq_bool_iff. split. apply Qc_is_canon. intro H. subst. reflexivity.
Qed.
Lemma Qcone_nz : q1 <> q0.
Proof. intro H. apply (f_equal this) in H. discriminate H. Qed.
Lemma Qcintegral : forall x y : Qc, x * y = q0 -> x = q0 \/ y = q0.
Proof. apply Qcmult_integral. Qed.
Lemma qdivx_spec : forall x y q : Qc, y <> q0 -> (qdivx x y = Some q <-> x = q * y).
Proof.
  intros x y q Hy. unfold qdivx. split.
  - intro H. inversion H; subst q. field. exact Hy.
  - intro H. subst x. f_equal. field. exact Hy.
Qed.

Ltac qi := try exact Qcrt; try exact qeqb_spec; try exact Qcintegral; try exact Qcone_nz;
           try exact qdivx_spec; try exact qofN; try exact q0; try exact qdivx.

Theorem q_repr :
  (forall p, qwf (qfrom_vec p)) /\
  (forall p k, qcoeff (qfrom_vec p) k = qscoeff p k) /\
  (forall d, qwf d -> qfrom_vec (qdense d) = d) /\
  (forall p q, qpeq p q -> qfrom_vec p = qfrom_vec q) /\
  (forall a b, qwf a -> qwf b -> (forall k, qcoeff a k = qcoeff b k) -> a = b).
Proof.
  repeat split.
  - eapply from_vec_wf; qi.
  - eapply from_vec_wf; qi.
  - intros. eapply coeff_from_vec; qi.
  - intros. eapply from_vec_dense; qi. assumption.
  - intros. eapply from_vec_peq; qi. assumption.
  - intros. eapply dict_ext; qi; eauto.
Qed.

Theorem q_degree_lc : forall p,
  is_degree Qc q0 p (degree (qfrom_vec p)) /\ qlc (qfrom_vec p) = qscoeff p (degree (qfrom_vec p)).
Proof. intro p. split. eapply degree_from_vec; qi. eapply get_lc_from_vec; qi. Qed.

Theorem q_add_sub_neg : forall p q,
  qadd (qfrom_vec p) (qfrom_vec q) = qfrom_vec (qsadd p q) /\
  qsub (qfrom_vec p) (qfrom_vec q) = qfrom_vec (qssub p q) /\
  qneg (qfrom_vec p) = qfrom_vec (qsneg p).
Proof.
  intros p q. split; [|split].
  - eapply dict_add_correct; qi.
  - eapply dict_sub_correct; qi.
  - eapply dict_neg_correct; qi.
Qed.

Theorem q_gmul : forall p q, (degree (qfrom_vec p) + degree (qfrom_vec q) < W32)%N ->
  qgmul (qfrom_vec p) (qfrom_vec q) = qfrom_vec (qsmul p q).
Proof. intros. eapply gmul_correct; qi. assumption. Qed.

Theorem q_mul_upoly : forall p q, (degree (qfrom_vec p) + degree (qfrom_vec q) < W32)%N ->
  qimul (qfrom_vec p) (qfrom_vec q) = Ok (qfrom_vec (qsmul p q)).
Proof.
  intros p q H. unfold qimul. eapply imul_correct; qi. unfold qgmul_res. f_equal. apply q_gmul. exact H.
Qed.

Theorem q_eval_diff : forall p x,
  qeval (qfrom_vec p) x = qseval p x /\ qdiff (qfrom_vec p) = qfrom_vec (qsdiff p).
Proof.
  intros p x. split. eapply poly_eval_correct; qi. eapply dict_diff_correct; qi.
Qed.

Lemma qgmul_chk_sound : mul_sound Qc q0 Qcplus Qcmult qeqb qgmul_chk.
Proof. change qgmul_chk with (gchk Qc q0 Qcplus Qcmult qeqb). eapply gchk_sound; qi. Qed.

Lemma qgmul_extends : extends_on_wf Qc q0 qeqb qgmul_res qgmul_chk.
Proof.
  intros p q r H. change (from_vec Qc q0 qeqb) with qfrom_vec in *. unfold qgmul_chk in H.
  destruct (degree (qfrom_vec p) + degree (qfrom_vec q) <? W32)%N; [|discriminate H]. exact H.
Qed.

Theorem q_pow : forall p n,
  qpow_fits (qfrom_vec p) n = true -> qpow (qfrom_vec p) n = Ok (qfrom_vec (qspow p n)).
Proof.
  intros p n H. unfold qpow_fits in H. apply is_ok_inv in H. destruct H as [out H].
  assert (E : out = qfrom_vec (qspow p n) /\ qpow (qfrom_vec p) n = Ok out).
  { eapply pow_sim; qi. apply qgmul_chk_sound. apply qgmul_extends. exact H. }
  destruct E as [<- E]. exact E.
Qed.

Theorem q_divides : forall pa pb,
  qdivides_fits (qfrom_vec pa) (qfrom_vec pb) = true -> (degree (qfrom_vec pb) < W32)%N ->
  exists r, qdivides (qfrom_vec pa) (qfrom_vec pb) = Ok r /\
    match r with
    | Some d => qfrom_vec pa <> [] /\ exists D, d = qfrom_vec D /\ qpeq pb (qsmul pa D)
    | None => qfrom_vec pa = [] \/ ~ exists D, qpeq pb (qsmul pa D)
    end.
Proof.
  intros pa pb H Hw. unfold qdivides_fits in H. apply is_ok_inv in H. destruct H as [r H].
  exists r. eapply divides_sim; qi. apply qgmul_chk_sound. apply qgmul_extends. exact Hw. exact H.
Qed.

Theorem q_divides_complete : forall pa pb Q,
  qdivides_fits (qfrom_vec pa) (qfrom_vec pb) = true -> (degree (qfrom_vec pb) < W32)%N ->
  qfrom_vec pa <> [] -> qpeq pb (qsmul pa Q) ->
  qdivides (qfrom_vec pa) (qfrom_vec pb) = Ok (Some (qfrom_vec Q)).
Proof.
  intros pa pb Q H Hw Hne HQ. unfold qdivides_fits in H. apply is_ok_inv in H. destruct H as [r H].
  eapply divides_sim_complete; qi. apply qgmul_chk_sound. apply qgmul_extends. exact Hw. exact Hne. exact HQ. exact H.
Qed.

(* the only representation limit is the exponent type, and the runs of pow_upoly / divides_upoly
   respect it under simple conditions (PolyFits.v) *)
Lemma qpow_fits_simple : forall p n, (n * degree (qfrom_vec p) < W32)%N -> qpow_fits (qfrom_vec p) n = true.
Proof.
  intros p n H. unfold qpow_fits. change qgmul_chk with (gchk Qc q0 Qcplus Qcmult qeqb).
  unfold qfrom_vec. erewrite pow_ok; qi. reflexivity. exact H.
Qed.

Theorem q_pow_simple : forall p n, (n * degree (qfrom_vec p) < W32)%N ->
  qpow (qfrom_vec p) n = Ok (qfrom_vec (qspow p n)).
Proof. intros p n H. apply q_pow. apply qpow_fits_simple. exact H. Qed.

Lemma qdivides_fits_simple : forall pa pb, (degree (qfrom_vec pb) < W32)%N ->
  qdivides_fits (qfrom_vec pa) (qfrom_vec pb) = true.
Proof.
  intros pa pb H. unfold qdivides_fits. change qgmul_chk with (gchk Qc q0 Qcplus Qcmult qeqb).
  destruct (qfrom_vec pa) as [|kv a'] eqn:Ea. reflexivity. rewrite <- Ea.
  assert (Ex : exists r, divides Qc q0 Qcminus Qcopp qeqb qdivx (gchk Qc q0 Qcplus Qcmult qeqb)
                           (qfrom_vec pa) (qfrom_vec pb) = Ok r).
  { eapply divides_ok; qi. fold (qfrom_vec pa). rewrite Ea. discriminate. exact H. }
  destruct Ex as [r E]. rewrite E. reflexivity.
Qed.

Theorem q_divides_simple : forall pa pb, (degree (qfrom_vec pb) < W32)%N ->
  exists r, qdivides (qfrom_vec pa) (qfrom_vec pb) = Ok r /\
    match r with
    | Some d => qfrom_vec pa <> [] /\ exists D, d = qfrom_vec D /\ qpeq pb (qsmul pa D)
    | None => qfrom_vec pa = [] \/ ~ exists D, qpeq pb (qsmul pa D)
    end.
Proof. intros pa pb H. apply q_divides. apply qdivides_fits_simple. exact H. exact H. Qed.

Theorem q_divides_complete_simple : forall pa pb Q, (degree (qfrom_vec pb) < W32)%N ->
  qfrom_vec pa <> [] -> qpeq pb (qsmul pa Q) ->
  qdivides (qfrom_vec pa) (qfrom_vec pb) = Ok (Some (qfrom_vec Q)).
Proof. intros pa pb Q H Hne HQ. apply q_divides_complete; try assumption. apply qdivides_fits_simple. exact H. Qed.
End RatInstance.
