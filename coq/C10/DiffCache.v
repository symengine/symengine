(* C10 -- the `visited` cache of DiffVisitor does not change the result.
   The cache maps a node to the result of visiting it; a look-up uses eq (here [expr_eqb]).  The
   model's results are construction terms, which list the dictionary entries of an Add in the
   order of the tree at hand; two eq sub-trees with different dictionary orders would therefore
   share a cache entry with a (syntactically) different term.  The theorem is stated for inputs on
   which eq sub-trees are identical ([eq_syntactic]); on the library, where results are canonical
   trees, the driver's oracle compares diff(e, x, true) and diff(e, x, false) on every case. *)
From SE Require Import C10.DiffModel C10.DiffInd.
Local Open Scope N_scope.

Definition children (e : expr) : list expr :=
  match e with
  | EAdd _ d => map fst d
  | EMul _ d => flat_map (fun p => [fst p; snd p]) d
  | EPow b x => [b; x]
  | EF1 _ a => [a]
  | EF2 _ a b => [a; b]
  | EFN _ l | EFunSym _ l => l
  | ELex _ a b => [a; b]
  | EDeriv a l => a :: l
  | ESubs a d => a :: flat_map (fun p => [fst p; snd p]) d
  | EPw l => flat_map (fun p => [fst p; snd p]) l
  | EInterval s t _ _ => [s; t]
  | _ => []
  end.

Inductive subterm : expr -> expr -> Prop :=
| sub_refl : forall e, subterm e e
| sub_step : forall a c e, In c (children e) -> subterm a c -> subterm a e.

Lemma subterm_child : forall a e0 c, subterm a e0 -> In c (children a) -> subterm c e0.
Proof.
  intros a e0 c H. induction H; intros Hc.
  - eapply sub_step; [exact Hc | apply sub_refl].
  - eapply sub_step; [exact H | apply IHsubterm; exact Hc].
Qed.

(* eq sub-trees of e0 are identical *)
Definition eq_syntactic (e0 : expr) : Prop :=
  forall a b, subterm a e0 -> subterm b e0 -> expr_eqb a b = true -> a = b.

Section Cache.
  Variable m : symmode.
  Variable e0 : expr.
  Hypothesis Hsyn : eq_syntactic e0.

  (* every entry of the cache maps a sub-tree of e0 to its uncached derivative *)
  Definition inv (x : expr) (st : cache) : Prop :=
    forall k v, In (k, v) st -> v = diffm m k x /\ subterm k e0.

  Lemma inv_nil : forall x, inv x [].
  Proof. intros x k v H. destruct H. Qed.

  Lemma lookupc_in : forall e st v, lookupc e st = Some v -> exists k, In (k, v) st /\ expr_eqb k e = true.
  Proof.
    intros e st v. induction st as [|[k w] r IH]; cbn [lookupc]; [discriminate|].
    destruct (expr_eqb k e) eqn:E.
    - intros H. injection H as <-. exists k. split; [left; reflexivity | exact E].
    - intros H. destruct (IH H) as [k' [Hin Hk]]. exists k'. split; [right; exact Hin | exact Hk].
  Qed.

  (* a hit: the stored key is eq to e, hence identical to it, so the stored value is e's uncached derivative *)
  Lemma hit_value : forall e x st w, subterm e e0 -> inv x st -> lookupc e st = Some w -> w = diffm m e x.
  Proof.
    intros e x st w Hs Hi L. destruct (lookupc_in _ _ _ L) as [k [Hin Hk]]. destruct (Hi k w Hin) as [Hw Hks].
    rewrite (Hsyn k e Hks Hs Hk) in Hw. exact Hw.
  Qed.

  Definition good (e : expr) : Prop :=
    forall x st, subterm e e0 -> inv x st ->
      exists st', diffcm m e x st = (diffm m e x, st') /\ inv x st'.

  (* visiting a child c of a sub-tree e of e0 *)
  Lemma good_child : forall e c x st,
    good c -> subterm e e0 -> In c (children e) -> inv x st ->
    exists st', diffcm m c x st = (diffm m c x, st') /\ inv x st'.
  Proof. intros e c x st Hg Hs Hc. apply Hg. exact (subterm_child e e0 c Hs Hc). Qed.

  Lemma mapc_good : forall (A : Type) (g : A -> expr) e (l : list A) x st,
    Forall (fun a => good (g a)) l -> subterm e e0 -> (forall a, In a l -> In (g a) (children e)) -> inv x st ->
    exists st', mapc (fun a => diffcm m (g a) x) l st = (map (fun a => diffm m (g a) x) l, st') /\ inv x st'.
  Proof.
    intros A g e l x. induction l as [|a r IH]; intros st HF Hs Hc Hi.
    - exists st. split; [reflexivity | exact Hi].
    - inversion HF as [|? ? Ha Hr]; subst. cbn [mapc map].
      destruct (good_child e _ x st Ha Hs (Hc a (or_introl eq_refl)) Hi) as [s1 [E1 I1]]. rewrite E1.
      destruct (IH s1 Hr Hs (fun b Hb => Hc b (or_intror Hb)) I1) as [s2 [E2 I2]]. rewrite E2.
      exists s2. split; [reflexivity | exact I2].
  Qed.

  Lemma mapc2_good : forall e (l : list (expr * expr)) x st,
    Forall (fun p => good (fst p) /\ good (snd p)) l -> subterm e e0 ->
    (forall c, In c (flat_map (fun p => [fst p; snd p]) l) -> In c (children e)) -> inv x st ->
    exists st', mapc2 (fun a => diffcm m a x) l st
                = (flat_map (fun p => [diffm m (fst p) x; diffm m (snd p) x]) l, st') /\ inv x st'.
  Proof.
    intros e l x. induction l as [|p r IH]; intros st HF Hs Hc Hi.
    - exists st. split; [reflexivity | exact Hi].
    - inversion HF as [|? ? [Ha Hb] Hr]; subst. cbn [mapc2 flat_map app] in *.
      destruct (good_child e _ x st Ha Hs (Hc _ (or_introl eq_refl)) Hi) as [s1 [E1 I1]]. rewrite E1.
      destruct (good_child e _ x s1 Hb Hs (Hc _ (or_intror (or_introl eq_refl))) I1) as [s2 [E2 I2]]. rewrite E2.
      destruct (IH s2 Hr Hs (fun c Hin => Hc c (or_intror (or_intror Hin))) I2) as [s3 [E3 I3]]. rewrite E3.
      exists s3. split; [reflexivity | exact I3].
  Qed.

  Lemma in_flat_pair : forall (l : list (expr * expr)) p,
    In p l -> In (fst p) (flat_map (fun p => [fst p; snd p]) l) /\ In (snd p) (flat_map (fun p => [fst p; snd p]) l).
  Proof.
    intros l p H. split; apply in_flat_map; exists p; (split; [exact H|]); cbn [In]; auto.
  Qed.

  (* finishing a visit: the result is remembered *)
  Lemma finish : forall e x v st',
    subterm e e0 -> v = diffm m e x -> inv x st' ->
    exists st'', (v, (e, v) :: st') = (diffm m e x, st'') /\ inv x st''.
  Proof.
    intros e x v st' Hs Hv Hi. exists ((e, v) :: st'). split; [rewrite Hv; reflexivity|].
    intros k w [H|H]; [injection H as <- <-; split; assumption | apply Hi; exact H].
  Qed.

  Lemma all_good : forall e, good e.
  Proof.
    induction e using expr_ind'; intros x st Hs Hi; cbn [diffcm];
      (destruct (lookupc _ st) as [w|] eqn:L;
       [ exists st; split; [rewrite (hit_value _ x st w Hs Hi L); reflexivity | exact Hi] | ]).
    - apply finish; auto.
    - apply finish; auto.
    - apply finish; auto.
    - apply finish; auto.
    - (* Add *)
      destruct (mapc_good _ (fun p : expr * number => fst p) _ d x st H Hs) as [s1 [E1 I1]]; [|exact Hi|].
      { intros p. apply in_map. }
      rewrite E1. apply finish; auto.
    - (* Mul *)
      destruct (mapc2_good _ d x st H Hs) as [s1 [E1 I1]]; [auto|exact Hi|].
      rewrite E1. apply finish; auto.
    - (* Pow *)
      destruct (good_child _ _ x st IHe1 Hs (or_introl eq_refl) Hi) as [s1 [E1 I1]]. rewrite E1.
      destruct (good_child _ _ x s1 IHe2 Hs (or_intror (or_introl eq_refl)) I1) as [s2 [E2 I2]]. rewrite E2.
      apply finish; auto.
    - (* F1 *)
      destruct (good_child _ _ x st IHe Hs (or_introl eq_refl) Hi) as [s1 [E1 I1]]. rewrite E1.
      apply finish; auto.
    - (* F2 *)
      destruct (good_child _ _ x st IHe1 Hs (or_introl eq_refl) Hi) as [s1 [E1 I1]]. rewrite E1.
      destruct (good_child _ _ x s1 IHe2 Hs (or_intror (or_introl eq_refl)) I1) as [s2 [E2 I2]]. rewrite E2.
      apply finish; auto.
    - (* FN *)
      destruct (mapc_good _ (fun a : expr => a) _ l x st H Hs) as [s1 [E1 I1]]; [auto|exact Hi|].
      rewrite E1. apply finish; auto.
    - (* FunSym *)
      destruct (mapc_good _ (fun a : expr => a) _ l x st H Hs) as [s1 [E1 I1]]; [auto|exact Hi|].
      rewrite E1. apply finish; auto.
    - apply finish; auto.
    - (* Derivative *)
      destruct (good_child _ _ x st IHe Hs (or_introl eq_refl) Hi) as [s1 [E1 I1]]. rewrite E1.
      apply finish; auto.
    - (* Subs *)
      assert (Sa : subterm e e0) by (eapply subterm_child; [exact Hs|cbn; auto]).
      destruct (IHe x st Sa Hi) as [s1 [E1 I1]]. rewrite E1.
      assert (HF : Forall (fun p : expr * expr => good (snd p)) d).
      { rewrite Forall_forall in H |- *. intros p Hp. apply (H p Hp). }
      destruct (mapc_good _ (fun p : expr * expr => snd p) _ d x s1 HF Hs) as [s2 [E2 I2]]; [|exact I1|].
      { intros p Hp. right. apply (in_flat_pair d p Hp). }
      rewrite E2.
      assert (EK : map (fun p : expr * expr => fst (diffcm m e (fst p) [])) d
                   = map (fun p : expr * expr => diffm m e (fst p)) d).
      { apply map_ext. intros p. destruct (IHe (fst p) [] Sa (inv_nil _)) as [s3 [E3 _]]. rewrite E3. reflexivity. }
      rewrite EK. apply finish; auto.
    - (* Piecewise *)
      assert (HF : Forall (fun p : expr * expr => good (fst p)) l).
      { rewrite Forall_forall in H |- *. intros p Hp. apply (H p Hp). }
      destruct (mapc_good _ (fun p : expr * expr => fst p) _ l x st HF Hs) as [s1 [E1 I1]]; [|exact Hi|].
      { intros p Hp. apply (in_flat_pair l p Hp). }
      rewrite E1. apply finish; auto.
    - apply finish; auto.
    - apply finish; auto.
    - apply finish; auto.
  Qed.
End Cache.

(* diff(e, x, cache = true) = diff(e, x, cache = false) *)
Theorem diff_cache_irrelevant : forall e x,
  eq_syntactic e -> diff_top true e x = diff_top false e x.
Proof.
  intros e x Hsyn. unfold diff_top, diffc, diff.
  destruct (all_good sym_mode e Hsyn e x [] (sub_refl e) (inv_nil sym_mode e x)) as [st' [E _]].
  rewrite E. reflexivity.
Qed.

(* more generally: started with any cache whose entries are correct, the visitor returns the uncached
   result and leaves a correct cache *)
Theorem diff_cache_invariant : forall m e0 e x st,
  eq_syntactic e0 -> subterm e e0 -> inv m e0 x st ->
  exists st', diffcm m e x st = (diffm m e x, st') /\ inv m e0 x st'.
Proof. intros m e0 e x st Hsyn. apply all_good. exact Hsyn. Qed.
