(* C10 obligation: diff(e, x) is the derivative.  For every tree e of the real fragment (exact real
   numbers, pi, E, symbols, Add, Mul, Pow with any exponent, the 25 function classes with a real
   function, atan2), every symbol x, every environment rho and every real t0 such that e is defined
   at x := t0 (every function applied inside its domain: [defined]), the function
   t |-> value of e at x := t is differentiable at t0 and its derivative is the value at x := t0 of the
   construction term the visitor returns. *)
From Coq Require Import Rdefinitions.
From Coquelicot Require Import Coquelicot.
From SE Require Import C10.DiffSem C10.DiffAbsent C10.DiffSound.
Theorem C10_diff_sound : forall (e x : expr) (rho : env) (t0 : R),
  defined (upd rho x t0) e ->
  is_derive (fun t => den (upd rho x t) e) t0 (denC (upd rho x t0) (diff e x)).
Proof. intros e x rho t0. apply diff_sound_guarded. apply var_agree_current. Qed.
Print Assumptions C10_diff_sound.
