(* C10 obligation: the generated differentiation rule of class ASin (translators/tr_diffrules.py, from
   DiffVisitor::bvisit(const ASin &)) has the shape apply(arg); result = mul(outer, result) and its outer
   factor is the derivative of the real function asin (-1 < y < 1) at every point of the stated domain. *)
From SE Require Import Gen.TypeCodes C10.RuleSpec C10.RulesAll.
Theorem C10_rule_sound_ASin : rule_ok TC_ASin.
Proof. exact rule_sound_ASin. Qed.
Print Assumptions C10_rule_sound_ASin.
