(* C10 obligation: the generated differentiation rule of class Csch (translators/tr_diffrules.py, from
   DiffVisitor::bvisit(const Csch &)) has the shape apply(arg); result = mul(outer, result) and its outer
   factor is the derivative of the real function csch = 1/sinh (y <> 0) at every point of the stated domain. *)
From SE Require Import Gen.TypeCodes C10.RuleSpec C10.RulesAll.
Theorem C10_rule_sound_Csch : rule_ok TC_Csch.
Proof. exact rule_sound_Csch. Qed.
Print Assumptions C10_rule_sound_Csch.
