(* C10 obligation: the generated differentiation rule of class Sec (translators/tr_diffrules.py, from
   DiffVisitor::bvisit(const Sec &)) has the shape apply(arg); result = mul(outer, result) and its outer
   factor is the derivative of the real function sec = 1/cos (cos y <> 0) at every point of the stated domain. *)
From SE Require Import Gen.TypeCodes C10.RuleSpec C10.RulesAll.
Theorem C10_rule_sound_Sec : rule_ok TC_Sec.
Proof. exact rule_sound_Sec. Qed.
Print Assumptions C10_rule_sound_Sec.
