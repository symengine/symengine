(* C10 -- real analysis lemmas (Coquelicot): the general power [rpow] and its derivatives. *)
From Coq Require Import Reals Lra Lia.
From Coquelicot Require Import Coquelicot.
From SE Require Export C10.DiffSem.
Local Open Scope R_scope.

Lemma Qr_1 : forall n, Qr n 1 = IZR n.
Proof. intros n. unfold Qr. field. Qed.

Lemma up_IZR : forall n : Z, up (IZR n) = (n + 1)%Z.
Proof.
  intros n. symmetry. apply tech_up.
  - apply IZR_lt. lia.
  - rewrite plus_IZR. lra.
Qed.

Lemma rpow_IZR : forall b n, rpow b (IZR n) = powerRZ b n.
Proof.
  intros b n. unfold rpow. rewrite up_IZR.
  replace (n + 1 - 1)%Z with n by lia.
  destruct (Req_EM_T (IZR n) (IZR n)) as [_|H]; [reflexivity|]. exfalso; apply H; reflexivity.
Qed.

Lemma rpow_pos : forall b e, 0 < b -> rpow b e = Rpower b e.
Proof.
  intros b e Hb. unfold rpow.
  destruct (Req_EM_T e (IZR (up e - 1))) as [E|_]; [|reflexivity].
  rewrite powerRZ_Rpower by exact Hb. rewrite <- E. reflexivity.
Qed.

Lemma rpow_1 : forall b, rpow b 1 = b.
Proof. intros b. rewrite (rpow_IZR b 1). apply powerRZ_1. Qed.
Lemma rpow_2 : forall b, rpow b 2 = b * b.
Proof. intros b. rewrite (rpow_IZR b 2). simpl. ring. Qed.
Lemma rpow_m1 : forall b, rpow b (-1) = / b.
Proof. intros b. rewrite (rpow_IZR b (-1)). simpl. rewrite Rmult_1_r. reflexivity. Qed.
Lemma rpow_m2 : forall b, rpow b (-1 - 1) = / (b * b).
Proof.
  intros b. replace (-1 - 1) with (IZR (-2)) by (simpl; lra).
  rewrite rpow_IZR. simpl. rewrite Rmult_1_r. reflexivity.
Qed.

Lemma is_derive_pow_nat : forall (k : nat) (y : R),
  is_derive (fun y => y ^ k) y (INR k * y ^ pred k).
Proof.
  intros k y. apply is_derive_Reals, derivable_pt_lim_pow.
Qed.

Lemma is_derive_powerRZ : forall (n : Z) (y : R),
  y <> 0 \/ (1 <= n)%Z ->
  is_derive (fun y => powerRZ y n) y (IZR n * powerRZ y (n - 1)).
Proof.
  intros n y H.
  destruct (Z_lt_le_dec n 0) as [Hn|Hn].
  - (* negative exponent: y <> 0 *)
    assert (Hy : y <> 0) by (destruct H; [assumption|lia]).
    destruct (Z_of_nat_complete (- n)) as [k Hk]; [lia|].
    assert (Ek : n = (- Z.of_nat k)%Z) by lia.
    destruct k as [|m]; [simpl in Ek; lia|].
    subst n.
    apply (is_derive_ext (fun y => / y ^ S m)).
    { intros t. rewrite powerRZ_neg'. rewrite <- pow_powerRZ. reflexivity. }
    evar_last.
    { apply is_derive_inv; [apply is_derive_pow_nat | apply pow_nonzero; exact Hy]. }
    replace (- Z.of_nat (S m) - 1)%Z with (- Z.of_nat (S (S m)))%Z by lia.
    rewrite powerRZ_neg', <- pow_powerRZ.
    rewrite opp_IZR, <- INR_IZR_INZ.
    assert (Hm : y ^ m <> 0) by (apply pow_nonzero; exact Hy).
    simpl pred. unfold Rdiv.
    change (y ^ S m) with (y * y ^ m). change (y ^ S (S m)) with (y * (y * y ^ m)).
    field. split; assumption.
  - destruct (Z_of_nat_complete n) as [k Hk]; [lia|]. subst n.
    apply (is_derive_ext (fun y => y ^ k)).
    { intros t. apply pow_powerRZ. }
    evar_last. { apply is_derive_pow_nat. }
    destruct k as [|m].
    + simpl. ring.
    + rewrite <- INR_IZR_INZ.
      replace (Z.of_nat (S m) - 1)%Z with (Z.of_nat m) by lia.
      rewrite <- pow_powerRZ. reflexivity.
Qed.

Lemma is_derive_rpow_int : forall (n : Z) (u : R -> R) (t du : R),
  is_derive u t du -> u t <> 0 \/ (1 <= n)%Z ->
  is_derive (fun s => rpow (u s) (IZR n)) t (IZR n * rpow (u t) (IZR n - 1) * du).
Proof.
  intros n u t du Hu H.
  apply (is_derive_ext (fun s => powerRZ (u s) n)).
  { intros s. symmetry. apply rpow_IZR. }
  replace (IZR n - 1) with (IZR (n - 1)) by (rewrite minus_IZR; reflexivity).
  rewrite rpow_IZR.
  evar_last.
  { apply (is_derive_comp (fun y => powerRZ y n) u t); [apply is_derive_powerRZ; exact H | exact Hu]. }
  unfold scal; simpl; unfold mult; simpl. ring.
Qed.

Lemma is_derive_Rpower_gen : forall (u v : R -> R) (t du dv : R),
  is_derive u t du -> is_derive v t dv -> 0 < u t ->
  is_derive (fun s => Rpower (u s) (v s)) t (Rpower (u t) (v t) * (dv * ln (u t) + v t * (/ u t * du))).
Proof.
  intros u v t du dv Hu Hv Hpos.
  unfold Rpower.
  evar_last.
  { apply (is_derive_comp exp (fun s => v s * ln (u s)) t).
    - apply is_derive_exp.
    - apply (is_derive_mult v (fun s => ln (u s)) t); [exact Hv | | intros; apply Rmult_comm].
      apply (is_derive_comp ln u t); [apply is_derive_ln; exact Hpos | exact Hu]. }
  unfold scal, plus; simpl; unfold mult; simpl. ring.
Qed.

Lemma is_derive_rpow_gen : forall (u v : R -> R) (t du dv : R),
  is_derive u t du -> is_derive v t dv -> 0 < u t ->
  is_derive (fun s => rpow (u s) (v s)) t (rpow (u t) (v t) * (dv * ln (u t) + v t * (/ u t * du))).
Proof.
  intros u v t du dv Hu Hv Hpos.
  rewrite rpow_pos by exact Hpos.
  apply (is_derive_ext_loc (fun s => Rpower (u s) (v s))).
  - (* u stays positive near t *)
    assert (Hc : continuous u t).
    { apply (ex_derive_continuous (K:=R_AbsRing) (V:=R_NormedModule)). exists du; exact Hu. }
    assert (Hloc : locally t (fun s => 0 < u s)).
    { apply Hc. apply (open_gt 0 (u t)). exact Hpos. }
    revert Hloc. apply filter_imp. intros s Hs. symmetry. apply rpow_pos. exact Hs.
  - apply is_derive_Rpower_gen; assumption.
Qed.

(* constant real exponent, positive base *)
Lemma is_derive_rpow_const : forall (q : R) (u : R -> R) (t du : R),
  is_derive u t du -> 0 < u t ->
  is_derive (fun s => rpow (u s) q) t (q * rpow (u t) (q - 1) * du).
Proof.
  intros q u t du Hu Hpos.
  evar_last.
  { apply (is_derive_rpow_gen u (fun _ => q) t du 0); [exact Hu | exact (@is_derive_const R_AbsRing R_NormedModule q t) | exact Hpos]. }
  rewrite !rpow_pos by exact Hpos.
  unfold Rpower. replace ((q - 1) * ln (u t)) with (q * ln (u t) + - ln (u t)) by ring.
  rewrite exp_plus, exp_Ropp, exp_ln by exact Hpos. ring.
Qed.
