(* C10 obligation: the generated differentiation rule of class ACsc (translators/tr_diffrules.py, from
   DiffVisitor::bvisit(const ACsc &)) has the shape apply(arg); result = mul(outer, result) and its outer
   factor is the derivative of the real function acsc y = asin (1/y) (y < -1 or 1 < y) at every point of the stated domain. *)
From SE Require Import Gen.TypeCodes C10.RuleSpec C10.RulesAll.
Theorem C10_rule_sound_ACsc : rule_ok TC_ACsc.
Proof. exact rule_sound_ACsc. Qed.
Print Assumptions C10_rule_sound_ACsc.
