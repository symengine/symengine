(* C10 obligation: the generated differentiation rule of class Tan (translators/tr_diffrules.py, from
   DiffVisitor::bvisit(const Tan &)) has the shape apply(arg); result = mul(outer, result) and its outer
   factor is the derivative of the real function tan (cos y <> 0) at every point of the stated domain. *)
From SE Require Import Gen.TypeCodes C10.RuleSpec C10.RulesAll.
Theorem C10_rule_sound_Tan : rule_ok TC_Tan.
Proof. exact rule_sound_Tan. Qed.
Print Assumptions C10_rule_sound_Tan.
