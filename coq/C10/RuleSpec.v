(* C10 -- what it means for a generated rule to be sound. *)
From Coq Require Import Reals.
From Coquelicot Require Import Coquelicot.
From SE Require Import C10.DiffReal.
Local Open Scope R_scope.

(* the rule generated for class [code] is the derivative of the class's real function on the
   stated domain (the value of `self` is irrelevant: these rules do not mention it) *)
Definition rule_ok (code : N) : Prop :=
  match lookup_rule code diff_rules, f1_sem code with
  | Some r, Some (F, dom) =>
      r_inner r = RArg 0 /\ r_neg r = false /\
      forall s y, dom y -> is_derive F y (eval_rexp s [y] (r_outer r))
  | _, _ => False
  end.
