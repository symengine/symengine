(* C10 obligation: the generated differentiation rule of class Sin (translators/tr_diffrules.py, from
   DiffVisitor::bvisit(const Sin &)) has the shape apply(arg); result = mul(outer, result) and its outer
   factor is the derivative of the real function sin at every point of the stated domain. *)
From SE Require Import Gen.TypeCodes C10.RuleSpec C10.RulesAll.
Theorem C10_rule_sound_Sin : rule_ok TC_Sin.
Proof. exact rule_sound_Sin. Qed.
Print Assumptions C10_rule_sound_Sin.
