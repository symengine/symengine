(* C10 obligation: the generated differentiation rule of class Log (translators/tr_diffrules.py, from
   DiffVisitor::bvisit(const Log &)) has the shape apply(arg); result = mul(outer, result) and its outer
   factor is the derivative of the real function ln (0 < y) at every point of the stated domain. *)
From SE Require Import Gen.TypeCodes C10.RuleSpec C10.RulesAll.
Theorem C10_rule_sound_Log : rule_ok TC_Log.
Proof. exact rule_sound_Log. Qed.
Print Assumptions C10_rule_sound_Log.
