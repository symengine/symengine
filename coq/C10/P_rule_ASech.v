(* C10 obligation: the generated differentiation rule of class ASech (translators/tr_diffrules.py, from
   DiffVisitor::bvisit(const ASech &)) has the shape apply(arg); result = mul(outer, result) and its outer
   factor is the derivative of the real function asech y = acosh (1/y) (0 < y < 1) at every point of the stated domain. *)
From SE Require Import Gen.TypeCodes C10.RuleSpec C10.RulesAll.
Theorem C10_rule_sound_ASech : rule_ok TC_ASech.
Proof. exact rule_sound_ASech. Qed.
Print Assumptions C10_rule_sound_ASech.
