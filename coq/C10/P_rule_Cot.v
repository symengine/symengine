(* C10 obligation: the generated differentiation rule of class Cot (translators/tr_diffrules.py, from
   DiffVisitor::bvisit(const Cot &)) has the shape apply(arg); result = mul(outer, result) and its outer
   factor is the derivative of the real function cot = cos/sin (sin y <> 0) at every point of the stated domain. *)
From SE Require Import Gen.TypeCodes C10.RuleSpec C10.RulesAll.
Theorem C10_rule_sound_Cot : rule_ok TC_Cot.
Proof. exact rule_sound_Cot. Qed.
Print Assumptions C10_rule_sound_Cot.
