(* C10 -- soundness of the visitor over the reals: on the fragment numbers / pi / E / symbols /
   Add / Mul / Pow / the 25 function classes with a real function / atan2, at every point where the
   tree is [defined], the construction term returned by [diffm] denotes the derivative. *)
From Coq Require Import Reals Lra Lia.
From Coquelicot Require Import Coquelicot.
From SE Require Import Expr.NumProofs C10.DiffReal C10.RuleSpec C10.RulesAll C10.DiffInd.
Local Open Scope R_scope.

Lemma der_const : forall (c t : R), is_derive (fun _ : R => c) t 0.
Proof. intros c t. exact (@is_derive_const R_AbsRing R_NormedModule c t). Qed.
Lemma der_id : forall t : R, is_derive (fun s : R => s) t 1.
Proof. intros t. exact (@is_derive_id R_AbsRing t). Qed.
Lemma der_plus : forall (f g : R -> R) (t a b : R),
  is_derive f t a -> is_derive g t b -> is_derive (fun s => f s + g s) t (a + b).
Proof. intros f g t a b Hf Hg. exact (@is_derive_plus R_AbsRing R_NormedModule f g t a b Hf Hg). Qed.
Lemma der_comp : forall (F u : R -> R) (t dF du : R),
  is_derive F (u t) dF -> is_derive u t du -> is_derive (fun s => F (u s)) t (dF * du).
Proof.
  intros F u t dF du HF Hu. evar_last.
  { exact (@is_derive_comp R_AbsRing R_NormedModule F u t dF du HF Hu). }
  unfold scal; simpl; unfold mult; simpl. ring.
Qed.
Lemma der_ext : forall (f g : R -> R) (t l : R),
  (forall s, f s = g s) -> is_derive f t l -> is_derive g t l.
Proof. intros f g t l H Hf. exact (@is_derive_ext R_AbsRing R_NormedModule f g t l H Hf). Qed.
Lemma der_eq : forall (f : R -> R) (t l l' : R), l = l' -> is_derive f t l -> is_derive f t l'.
Proof. intros f t l l' <- H. exact H. Qed.

Lemma All_In : forall {A} (P : A -> Prop) l, All P l -> forall a, In a l -> P a.
Proof.
  intros A P l. induction l as [|q r IH]; intros H a Ha; [destruct Ha|].
  destruct H as [Hq Hr]. destruct Ha as [->|Ha]; [exact Hq | exact (IH Hr a Ha)].
Qed.

Lemma is_czero_den : forall rho c, is_czero c = true -> denC rho c = 0.
Proof.
  intros rho c H. destruct c; try discriminate. destruct e; try discriminate.
  destruct n; try discriminate. destruct z; try discriminate. reflexivity.
Qed.
Lemma denC_czero : forall rho, denC rho czero = 0.
Proof. reflexivity. Qed.
Lemma denC_cadd : forall rho a b, denC rho (cadd a b) = denC rho a + denC rho b.
Proof.
  intros rho a b. unfold cadd. destruct (is_czero a) eqn:Ea; [rewrite (is_czero_den rho a Ea); lra|].
  destruct (is_czero b) eqn:Eb; [rewrite (is_czero_den rho b Eb); lra|]. reflexivity.
Qed.
Lemma denC_cmul : forall rho a b, denC rho (cmul a b) = denC rho a * denC rho b.
Proof.
  intros rho a b. unfold cmul. destruct (is_czero a) eqn:Ea; cbn [orb].
  - rewrite (is_czero_den rho a Ea). cbn. lra.
  - destruct (is_czero b) eqn:Eb; [rewrite (is_czero_den rho b Eb); cbn; lra | reflexivity].
Qed.
Lemma denC_cneg : forall rho a, denC rho (cneg a) = - denC rho a.
Proof.
  intros rho a. unfold cneg. destruct (is_czero a) eqn:Ea; [rewrite (is_czero_den rho a Ea); cbn; lra | reflexivity].
Qed.

Lemma num_val_mkq : forall n d, num_val (mkq n d) = Qr n d.
Proof.
  intros n d. unfold mkq. destruct (Pos.eqb_spec d 1) as [->|_]; [|reflexivity].
  cbn [num_val]. symmetry. apply Qr_1.
Qed.

Lemma denC_inst : forall rho self args r,
  denC rho (inst self args r) = eval_rexp (denC rho self) (map (denC rho) args) r.
Proof.
  intros rho self args r. induction r using rexp_ind'; cbn [inst eval_rexp denC];
    rewrite ?IHr1, ?IHr2, ?IHr; try reflexivity.
  - change 0 with (denC rho (CErr EXN_UNMODELLED)). symmetry. apply map_nth.
  - cbn [den]. apply num_val_mkq.
  - f_equal. rewrite map_map. apply map_ext_in. rewrite Forall_forall in H. exact H.
Qed.

Section Sound.
  Variable m : symmode.
  Variable x : expr.
  Variable rho : env.
  Variable t0 : R.

  (* the value of e as a function of the value t of x; the environment at the point *)
  Definition U (e : expr) (t : R) : R := den (upd rho x t) e.
  Definition r0 : env := upd rho x t0.
  Definition D (e : expr) : R := denC r0 (diffm m e x).

  Lemma U_t0 : forall e, U e t0 = den r0 e.
  Proof. reflexivity. Qed.

  Definition sound (e : expr) : Prop :=
    var_agree m x e = true -> defined r0 e -> is_derive (U e) t0 (D e).

  (* Symbol and Dummy leaves *)
  Lemma leaf_sound : forall e, (forall r, den r e = r e) -> diffm m e x = (if is_var_mode m x e then CE e_one else czero) ->
    Bool.eqb (is_var_mode m x e) (expr_eqb x e) = true -> is_derive (U e) t0 (D e).
  Proof.
    intros e He Hdiff Hv. apply Bool.eqb_prop in Hv. unfold D. rewrite Hdiff, Hv.
    destruct (expr_eqb x e) eqn:E.
    - apply (der_ext (fun t => t)); [|apply der_id].
      intros s. unfold U. rewrite He. unfold upd. rewrite E. reflexivity.
    - apply (der_ext (fun _ => rho e)); [|apply der_const].
      intros s. unfold U. rewrite He. unfold upd. rewrite E. reflexivity.
  Qed.

  Definition pow_cond (b ex : expr) : Prop :=
    match ex with
    | ENum (NInt z) => den r0 b <> 0 \/ (1 <= z)%Z
    | ENum q => num_real q = true /\ 0 < den r0 b
    | _ => 0 < den r0 b
    end.

  Lemma pow_rule_sound : forall self b ex db dex,
    denC r0 self = rpow (den r0 b) (den r0 ex) ->
    is_derive (U b) t0 (denC r0 db) -> is_derive (U ex) t0 (denC r0 dex) -> pow_cond b ex ->
    is_derive (fun t => rpow (U b t) (U ex t)) t0 (denC r0 (pow_rule self b ex db dex)).
  Proof.
    intros self b ex db dex Hself Hb Hex Hc. unfold pow_rule.
    destruct (is_num ex) eqn:En.
    - (* numeric exponent *)
      destruct ex as [q| | | | | | | | | | | | | | | | |]; try discriminate.
      unfold apply_rule, rule_Pow_num. cbn [r_inner r_outer r_neg inst drexp nth map].
      rewrite denC_cmul. cbn [denC den mkq Pos.eqb num_val].
      apply (der_ext (fun t => rpow (U b t) (num_val q))); [reflexivity|].
      destruct q as [z|p d| | | | |]; cbn [pow_cond num_real] in Hc;
        try (destruct Hc as [Hc _]; discriminate).
      + cbn [num_val]. apply (is_derive_rpow_int z (U b) t0 _ Hb). exact Hc.
      + destruct Hc as [_ Hpos]. cbn [num_val]. apply (is_derive_rpow_const _ (U b) t0 _ Hb). exact Hpos.
    - (* general exponent: u^v = exp (v ln u) *)
      assert (Hpos : 0 < den r0 b).
      { destruct ex as [q| | | | | | | | | | | | | | | | |]; try discriminate; exact Hc. }
      unfold apply_rule, rule_Pow_gen. cbn [r_inner r_outer r_neg inst drexp nth map].
      unfold rule_Log. cbn [r_outer inst nth].
      rewrite denC_cmul, denC_cadd, !denC_cmul. cbn [denC den mkq Pos.eqb num_val map fn_sem].
      rewrite Hself.
      eapply der_eq; [|apply (is_derive_rpow_gen (U b) (U ex) t0 _ _ Hb Hex Hpos)].
      rewrite !U_t0. field. lra.
  Qed.

  Lemma add_sum_den : forall (f : expr * number -> cx) l acc,
    denC r0 (add_sum l (map f l) acc)
    = denC r0 acc + fold_right (fun p s => num_val (snd p) * denC r0 (f p) + s) 0 l.
  Proof.
    intros f. induction l as [|p r IH]; intros acc; cbn [add_sum map fold_right]; [lra|].
    rewrite IH, denC_cadd, denC_cmul. cbn [denC den]. lra.
  Qed.

  Lemma sum_derive : forall (l : list (expr * number)) (c0 : R),
    Forall (fun p => is_derive (U (fst p)) t0 (D (fst p))) l ->
    is_derive (fun t => fold_right (fun p acc => num_val (snd p) * U (fst p) t + acc) c0 l) t0
              (fold_right (fun p s => num_val (snd p) * D (fst p) + s) 0 l).
  Proof.
    intros l c0 H. induction H as [|p r Hp _ IH]; cbn [fold_right].
    - apply der_const.
    - apply der_plus; [|exact IH]. apply is_derive_scal. exact Hp.
  Qed.

  Definition G (p : expr * expr) (t : R) : R := rpow (U (fst p) t) (U (snd p) t).
  Definition PV (l : list (expr * expr)) : R := fold_right (fun p acc => G p t0 * acc) 1 l.

  Lemma PV_app : forall l1 l2, PV (l1 ++ l2) = PV l1 * PV l2.
  Proof.
    unfold PV. induction l1 as [|p r IH]; intros l2; cbn [app fold_right]; [ring|]. rewrite IH. ring.
  Qed.

  Lemma prod_entries_den : forall l,
    match prod_entries l with Some p => denC r0 p = PV l | None => l = [] end.
  Proof.
    intros l. unfold prod_entries. destruct l as [|q r]; [reflexivity|].
    cbn [denC den num_val]. unfold PV, G. rewrite Rmult_1_l. reflexivity.
  Qed.

  Lemma mul_term_den : forall c f rest,
    denC r0 (mul_term c f rest) = num_val c * denC r0 f * PV rest.
  Proof.
    intros c f rest. unfold mul_term. pose proof (prod_entries_den rest) as H.
    destruct (prod_entries rest) as [p|].
    - rewrite !denC_cmul, H. reflexivity.
    - subst rest. rewrite denC_cmul. cbn [denC den PV fold_right]. ring.
  Qed.

  Section Prod.
    Variable G' : expr * expr -> R.
    (* the derivative of the product of the G p, given the derivatives G' p of the factors *)
    Fixpoint dprod (l : list (expr * expr)) : R :=
      match l with
      | [] => 0
      | p :: r => G' p * PV r + G p t0 * dprod r
      end.

    Lemma prod_derive : forall l,
      (forall p, In p l -> is_derive (G p) t0 (G' p)) ->
      is_derive (fun t => fold_right (fun p acc => G p t * acc) 1 l) t0 (dprod l).
    Proof.
      induction l as [|p r IH]; intros H; cbn [fold_right dprod].
      - apply der_const.
      - assert (H1 : is_derive (G p) t0 (G' p)) by (apply H; left; reflexivity).
        assert (H2 : is_derive (fun t => fold_right (fun p acc => G p t * acc) 1 r) t0 (dprod r))
          by (apply IH; intros q Hq; apply H; right; exact Hq).
        eapply der_eq; [|exact (Derive.is_derive_mult _ _ t0 _ _ H1 H2)]. unfold PV. reflexivity.
    Qed.
  End Prod.

  (* the loop adds, for every entry, its derivative times the entries before ([pre]) and after it *)
  Lemma mul_sum_den : forall c (f : expr * expr -> cx) l pre acc,
    denC r0 (mul_sum c pre l (map f l) acc)
    = denC r0 acc + num_val c * (PV pre * dprod (fun p => denC r0 (f p)) l).
  Proof.
    intros c f. induction l as [|p r IH]; intros pre acc; cbn [mul_sum map dprod]; [ring|].
    rewrite IH, denC_cadd, mul_term_den, !PV_app. cbn [PV fold_right]. ring.
  Qed.

  Lemma entry_diffs_map : forall (f : expr -> cx) l,
    entry_diffs l (flat_map (fun p => [f (fst p); f (snd p)]) l)
    = map (fun p => entry_diff (fst p) (snd p) (f (fst p)) (f (snd p))) l.
  Proof. intros f. induction l as [|p r IH]; cbn [flat_map app entry_diffs map]; [reflexivity|]. rewrite IH. reflexivity. Qed.

  (* one factor b^e of a product *)
  Lemma entry_sound : forall b ex,
    is_derive (U b) t0 (D b) -> is_derive (U ex) t0 (D ex) -> pow_cond b ex ->
    is_derive (G (b, ex)) t0 (denC r0 (entry_diff b ex (diffm m b x) (diffm m ex x))).
  Proof.
    intros b ex Hb Hex Hc. unfold G. cbn [fst snd].
    assert (Hgen : is_derive (fun t => rpow (U b t) (U ex t)) t0
                             (denC r0 (pow_rule (CPow (CE b) (CE ex)) b ex (diffm m b x) (diffm m ex x)))).
    { apply pow_rule_sound; [reflexivity | exact Hb | exact Hex | exact Hc]. }
    unfold entry_diff.
    destruct ex as [[[| |]| | | | | |]| | | | | | | | | | | | | | | | |]; try exact Hgen.
    destruct p; try exact Hgen.
    (* exponent 1: pow(b, 1) = b *)
    apply (der_ext (U b)); [|exact Hb].
    intros s. unfold U at 2. cbn [den num_val]. rewrite rpow_1. reflexivity.
  Qed.

  Lemma pow_cond_of_defined : forall b ex,
    match ex with
    | ENum (NInt z) => den r0 b <> 0 \/ (1 <= z)%Z
    | ENum q => num_real q = true /\ 0 < den r0 b
    | _ => defined r0 ex /\ 0 < den r0 b
    end -> pow_cond b ex /\ defined r0 ex.
  Proof.
    intros b ex H. unfold pow_cond.
    destruct ex as [q| | | | | | | | | | | | | | | | |]; try (destruct H as [H1 H2]; split; assumption).
    destruct q; try (destruct H as [H1 H2]; split; [split|]; assumption).
    split; [exact H | reflexivity].
  Qed.

  Theorem diff_sound_all : forall e, sound e.
  Proof.
    induction e using expr_ind'; unfold sound; intros Hv Hd.
    - (* Number *) exact (der_const _ _).
    - (* Symbol *) apply leaf_sound; [reflexivity | reflexivity | exact Hv].
    - (* Dummy *) apply leaf_sound; [reflexivity | reflexivity | exact Hv].
    - (* Constant *) exact (der_const _ _).
    - (* Add *)
      cbn [defined var_agree] in Hd, Hv. destruct Hd as [_ Hall].
      unfold D. cbn [diffm]. rewrite add_sum_den. rewrite denC_czero, Rplus_0_l.
      apply (sum_derive d (num_val c)).
      rewrite forallb_forall in Hv. rewrite Forall_forall in H |- *. intros p Hp.
      apply (H p Hp); [apply Hv; exact Hp | exact (proj2 (All_In _ _ Hall p Hp))].
    - (* Mul *)
      cbn [defined var_agree] in Hd, Hv. destruct Hd as [_ Hall].
      unfold D. cbn [diffm].
      pose proof (entry_diffs_map (fun a => diffm m a x) d) as Ed. cbn beta in Ed. rewrite Ed. clear Ed.
      rewrite mul_sum_den.
      rewrite denC_czero, Rplus_0_l. unfold PV at 1. cbn [fold_right]. rewrite Rmult_1_l.
      apply (der_ext (fun t => num_val c * fold_right (fun p acc => G p t * acc) 1 d)); [reflexivity|].
      apply is_derive_scal. apply prod_derive.
      rewrite forallb_forall in Hv. rewrite Forall_forall in H. intros p Hp.
      destruct (H p Hp) as [S1 S2]. specialize (Hv p Hp). apply andb_prop in Hv. destruct Hv as [V1 V2].
      destruct (All_In _ _ Hall p Hp) as [Hd1 Hm]. destruct (pow_cond_of_defined _ _ Hm) as [Hc Hd2].
      destruct p as [b ex]. cbn [fst snd] in *.
      apply entry_sound; [apply S1; assumption | apply S2; assumption | exact Hc].
    - (* Pow *)
      cbn [defined var_agree] in Hd, Hv. destruct Hd as [Hd1 Hm].
      apply andb_prop in Hv. destruct Hv as [V1 V2].
      destruct (pow_cond_of_defined _ _ Hm) as [Hc Hd2].
      unfold D. cbn [diffm].
      apply (der_ext (fun t => rpow (U e1 t) (U e2 t))); [reflexivity|].
      apply pow_rule_sound; [reflexivity | apply IHe1; assumption | apply IHe2; assumption | exact Hc].
    - (* one-argument function classes *)
      cbn [defined var_agree] in Hd, Hv. destruct Hd as [Hda Hdom].
      destruct (f1_sem c) as [[F dom]|] eqn:Ef; [|contradiction].
      destruct (rule_use c F dom Ef) as [r [Hl [Hi [Hn Hr]]]].
      unfold D. cbn [diffm]. unfold f1_rule. rewrite Hl. unfold apply_rule. rewrite Hi, Hn.
      cbn [drexp nth map]. rewrite denC_cmul, denC_inst. cbn [map denC].
      apply (der_ext (fun t => F (U e t))).
      { intros s. unfold U. cbn [den]. rewrite Ef. reflexivity. }
      apply der_comp; [apply Hr; exact Hdom | apply IHe; assumption].
    - (* atan2 *)
      cbn [defined var_agree] in Hd, Hv. destruct Hd as [Hc [Hda [Hdb Hpos]]].
      apply andb_prop in Hv. destruct Hv as [V1 V2].
      apply N.eqb_eq in Hc. subst c.
      pose proof (IHe1 V1 Hda) as H1. pose proof (IHe2 V2 Hdb) as H2.
      unfold D in *. cbn [diffm]. unfold f2_rule.
      replace (lookup_rule TC_ATan2 diff_rules) with (Some rule_ATan2) by (vm_compute; reflexivity).
      unfold apply_rule, rule_ATan2. cbn [r_inner r_outer r_neg inst drexp nth map].
      rewrite denC_cmul, denC_cadd, !denC_cmul.
      cbn [denC den mkq Pos.eqb num_val e_minus_one e_one]. rewrite !rpow_2, rpow_m1, rpow_m2.
      apply (der_ext (fun t => atan (U e1 t / U e2 t))); [reflexivity|].
      assert (Hne : U e2 t0 <> 0) by (rewrite U_t0; lra).
      eapply der_eq; [|apply (der_comp atan (fun t => U e1 t / U e2 t) t0 _ _ (is_derive_atan _)
                                       (is_derive_div (U e1) (U e2) t0 _ _ H1 H2 Hne))].
      rewrite !U_t0 in *. unfold Rsqr. field. split; [lra|]. nra.
    - contradiction.
    - contradiction.
    - contradiction.
    - contradiction.
    - contradiction.
    - contradiction.
    - contradiction.
    - contradiction.
    - contradiction.
  Qed.
End Sound.

(* the statement for the visitor of the current source: at every point t0 where e (with x := t0) is
   defined, t |-> value of e is differentiable at t0 and the value of diff(e, x) is its derivative *)
Theorem diff_sound_guarded : forall m e x rho t0,
  var_agree m x e = true -> defined (upd rho x t0) e ->
  is_derive (fun t => den (upd rho x t) e) t0 (denC (upd rho x t0) (diffm m e x)).
Proof. intros m e x rho t0. apply diff_sound_all. Qed.
