(* C10 obligation: the generated differentiation rule of class ACosh (translators/tr_diffrules.py, from
   DiffVisitor::bvisit(const ACosh &)) has the shape apply(arg); result = mul(outer, result) and its outer
   factor is the derivative of the real function acosh y = ln (y + sqrt (y^2 - 1)) (1 < y) at every point of the stated domain. *)
From SE Require Import Gen.TypeCodes C10.RuleSpec C10.RulesAll.
Theorem C10_rule_sound_ACosh : rule_ok TC_ACosh.
Proof. exact rule_sound_ACosh. Qed.
Print Assumptions C10_rule_sound_ACosh.
