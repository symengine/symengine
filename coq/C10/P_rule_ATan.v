(* C10 obligation: the generated differentiation rule of class ATan (translators/tr_diffrules.py, from
   DiffVisitor::bvisit(const ATan &)) has the shape apply(arg); result = mul(outer, result) and its outer
   factor is the derivative of the real function atan at every point of the stated domain. *)
From SE Require Import Gen.TypeCodes C10.RuleSpec C10.RulesAll.
Theorem C10_rule_sound_ATan : rule_ok TC_ATan.
Proof. exact rule_sound_ATan. Qed.
Print Assumptions C10_rule_sound_ATan.
