(* C10 -- when x does not occur in e the visitor returns exactly the Integer 0
   (for the classes whose bvisit does so; see [absent_guard]).  No real numbers here. *)
From SE Require Import Expr.NumProofs C10.DiffModel C10.DiffInd.
From Coq Require Import Lia.
Local Open Scope N_scope.

Lemma cmul_zero_r : forall a, cmul a czero = czero.
Proof. intros a. unfold cmul. rewrite Bool.orb_true_r. reflexivity. Qed.
Lemma cmul_zero_l : forall a, cmul czero a = czero.
Proof. reflexivity. Qed.
Lemma cadd_zero : cadd czero czero = czero.
Proof. reflexivity. Qed.
Lemma cneg_zero : cneg czero = czero.
Proof. reflexivity. Qed.

Lemma cifallzero_zero : forall cs a b, Forall (fun t => t = czero) cs -> cifallzero cs a b = a.
Proof.
  intros cs a b H. unfold cifallzero.
  assert (E : filter (fun c => negb (is_czero c)) cs = []).
  { induction H as [|c r Hc _ IH]; [reflexivity|]. subst c. cbn [filter is_czero czero e_zero negb]. exact IH. }
  rewrite E. reflexivity.
Qed.

Lemma existsb_false : forall {A} (f : A -> bool) l, existsb f l = false -> forall a, In a l -> f a = false.
Proof.
  intros A f l H a Ha. destruct (f a) eqn:E; [|reflexivity].
  rewrite <- H. symmetry. apply existsb_exists. exists a. auto.
Qed.

Lemma eqb_symbol_sym : forall x v, is_symbol x = true -> expr_eqb v x = true -> expr_eqb x v = true.
Proof.
  intros x v Hx H. destruct x; try discriminate; destruct v; try discriminate;
    unfold expr_eqb in *; cbn [size Cmp.eqb Nat.add] in *.
  - apply bytes_eqb_eq in H. subst. apply bytes_eqb_refl.
  - apply andb_prop in H. destruct H as [H1 H2]. apply bytes_eqb_eq in H1. apply N.eqb_eq in H2. subst.
    rewrite bytes_eqb_refl, N.eqb_refl. reflexivity.
Qed.
Lemma eqb_symbol_is_symbol : forall x v, is_symbol x = true -> expr_eqb v x = true -> is_symbol v = true.
Proof.
  intros x v Hx H. destruct x; try discriminate; destruct v; try reflexivity;
    unfold expr_eqb in H; cbn [size Cmp.eqb Nat.add] in H; discriminate.
Qed.
Lemma occurs_eqb : forall x v, is_symbol x = true -> occurs x v = false -> expr_eqb v x = false.
Proof.
  intros x v Hx Ho. destruct (expr_eqb v x) eqn:E; [|reflexivity].
  pose proof (eqb_symbol_is_symbol x v Hx E) as Hv. pose proof (eqb_symbol_sym x v Hx E) as Hs.
  destruct v; try discriminate; cbn [occurs] in Ho; congruence.
Qed.

(* the inner expression of a rule mentions only the arguments below n and is one [drexp] is modelled for: its
   derivative is then built from the derivatives of the arguments by sums and products alone *)
Fixpoint drexp_ok (n : nat) (r : rexp) : bool :=
  match r with
  | RArg i => (i <? n)%nat
  | RConst _ _ | RPi => true
  | RAdd a b | RSub a b | RMul a b | RDiv a b => drexp_ok n a && drexp_ok n b
  | RNeg a => drexp_ok n a
  | RFun Flog [a] => drexp_ok n a
  | _ => false
  end.

Lemma drexp_zero : forall self args n r, drexp_ok n r = true -> drexp self args (repeat czero n) r = czero.
Proof.
  intros self args n r. induction r using rexp_ind'; cbn [drexp_ok drexp]; intros Hr;
    try discriminate; try reflexivity;
    try (apply andb_prop in Hr; destruct Hr as [H1 H2]; rewrite (IHr1 H1), (IHr2 H2)).
  - (* RArg *)
    apply Nat.ltb_lt in Hr. rewrite (nth_indep _ _ czero) by (rewrite repeat_length; exact Hr). apply nth_repeat.
  - (* RAdd *) reflexivity.
  - (* RSub *) reflexivity.
  - (* RMul *) rewrite cmul_zero_r. reflexivity.
  - (* RDiv *) rewrite !cmul_zero_r. reflexivity.
  - (* RNeg *) rewrite (IHr Hr). reflexivity.
  - (* log a *)
    destruct f; try discriminate. destruct l as [|a [|]]; try discriminate.
    inversion H as [|? ? Ha _]; subst. rewrite (Ha Hr). apply cmul_zero_r.
Qed.

Lemma apply_rule_zero : forall r self args n,
  drexp_ok n (r_inner r) = true -> apply_rule r self args (repeat czero n) = czero.
Proof.
  intros r self args n H. unfold apply_rule. rewrite (drexp_zero _ _ _ _ H), cmul_zero_r.
  destruct (r_neg r); reflexivity.
Qed.

(* the tables: every rule of a one- / two-argument class is of that kind (finite checks) *)
Lemma f1_table_inner :
  forallb (fun c => match lookup_rule c diff_rules with Some r => drexp_ok 1 (r_inner r) | None => true end)
          f1_codes = true.
Proof. vm_compute. reflexivity. Qed.
Lemma f2_table_inner :
  forallb (fun c => match lookup_rule c diff_rules with Some r => drexp_ok 2 (r_inner r) | None => true end)
          f2_codes = true.
Proof. vm_compute. reflexivity. Qed.

Lemma memN_In : forall c l, memN c l = true -> In c l.
Proof.
  intros c l H. unfold memN in H. apply existsb_exists in H. destruct H as [y [Hy E]].
  apply N.eqb_eq in E. subst. exact Hy.
Qed.

Lemma pow_rule_zero : forall self b ex, pow_rule self b ex czero czero = czero.
Proof. intros self b ex. unfold pow_rule. destruct (is_num ex); apply (apply_rule_zero _ _ _ 2); reflexivity. Qed.

Lemma entry_diff_zero : forall b ex, entry_diff b ex czero czero = czero.
Proof.
  intros b ex. unfold entry_diff.
  destruct ex as [[[| |]| | | | | |]| | | | | | | | | | | | | | | | |]; try apply pow_rule_zero.
  - destruct p; try apply pow_rule_zero. reflexivity.
Qed.

Lemma add_sum_zero : forall l ds, Forall (fun t => t = czero) ds -> add_sum l ds czero = czero.
Proof.
  induction l as [|p r IH]; intros ds H; [reflexivity|].
  destruct ds as [|t tr]; [reflexivity|]. inversion H; subst. cbn [add_sum].
  rewrite cmul_zero_r, cadd_zero. apply IH. assumption.
Qed.

Lemma mul_term_zero : forall c rest, mul_term c czero rest = czero.
Proof. intros c rest. unfold mul_term. destruct (prod_entries rest); rewrite cmul_zero_r; reflexivity. Qed.

Lemma mul_sum_zero : forall c l pre fs, Forall (fun t => t = czero) fs -> mul_sum c pre l fs czero = czero.
Proof.
  induction l as [|p r IH]; intros pre fs H; [reflexivity|].
  destruct fs as [|f fr]; [reflexivity|]. inversion H; subst. cbn [mul_sum].
  rewrite mul_term_zero, cadd_zero. apply IH. assumption.
Qed.

Lemma entry_diffs_zero : forall l ds, Forall (fun t => t = czero) ds ->
  Forall (fun t => t = czero) (entry_diffs l ds).
Proof.
  induction l as [|p r IH]; intros ds H; [constructor|].
  destruct ds as [|d1 [|d2 dr]]; try constructor.
  - inversion H as [|? ? H1 H2]; subst. inversion H2; subst. apply entry_diff_zero.
  - apply IH. inversion H as [|? ? H1 H2]; subst. inversion H2; subst. assumption.
Qed.

Lemma subs_loop_zero : forall self x dict l ts ks,
  Forall (fun t => t = czero) ts -> subs_loop self x dict l ts ks czero = czero.
Proof.
  induction l as [|p r IH]; intros ts ks H; [reflexivity|].
  destruct ts as [|t tr]; [reflexivity|]. destruct ks as [|k kr]; [reflexivity|].
  inversion H; subst. cbn [subs_loop]. destruct (is_sym (fst p)).
  - rewrite cmul_zero_l, cadd_zero. apply IH; assumption.
  - cbn [cifzero is_czero czero e_zero]. apply IH; assumption.
Qed.

Lemma special_nil : forall code args x i,
  Forall (fun v => expr_eqb v x = false) args -> special code x i args = [].
Proof.
  intros code args x. induction args as [|v vs IH]; intros i H; [reflexivity|].
  inversion H; subst. cbn [special]. rewrite H2. cbn [andb app]. apply IH. assumption.
Qed.

Lemma fdiff_sum_zero : forall self code args0 vs i ds,
  Forall (fun t => t = czero) ds -> fdiff_sum self code args0 i vs ds czero = czero.
Proof.
  intros self code args0. induction vs as [|v vs IH]; intros i ds H; [reflexivity|].
  destruct ds as [|d dr]; [reflexivity|]. inversion H; subst. cbn [fdiff_sum].
  assert (E : fdiff_term self code args0 i v czero = czero).
  { unfold fdiff_term. destruct (known code i); [apply cmul_zero_r | apply cmul_zero_l]. }
  rewrite E, cadd_zero. apply IH. assumption.
Qed.

Lemma fdiff_zero : forall self code args ds x,
  Forall (fun v => expr_eqb v x = false) args -> Forall (fun t => t = czero) ds ->
  fdiff self code args ds x = czero.
Proof.
  intros self code args ds x Ha Hd. unfold fdiff.
  rewrite (special_nil code args x 0%nat Ha). apply fdiff_sum_zero. assumption.
Qed.

Lemma f1_rule_zero : forall c self a x, f1_absent_ok c = true -> expr_eqb a x = false ->
  f1_rule c self a czero x = czero.
Proof.
  intros c self a x Hc Ha.
  unfold f1_absent_ok in Hc. apply andb_prop in Hc. destruct Hc as [Hc Hnot].
  apply andb_prop in Hc. destruct Hc as [Hmem Hun].
  apply Bool.negb_true_iff in Hnot, Hun.
  unfold f1_rule.
  pose proof f1_table_inner as T. rewrite forallb_forall in T. specialize (T c (memN_In _ _ Hmem)).
  destruct (lookup_rule c diff_rules) as [r|].
  - apply (apply_rule_zero r _ _ 1). exact T.
  - destruct (c =? TC_Abs); [reflexivity|]. rewrite Hun.
    destruct (mem_code c deriv_if_dep_codes); [reflexivity|]. rewrite Hnot.
    apply fdiff_zero; repeat constructor. exact Ha.
Qed.

Lemma f2_rule_zero : forall c self a b x, f2_absent_ok c = true -> expr_eqb a x = false -> expr_eqb b x = false ->
  f2_rule c self a b czero czero x = czero.
Proof.
  intros c self a b x Hc Ha Hb.
  unfold f2_absent_ok in Hc. apply andb_prop in Hc. destruct Hc as [Hmem Hnb].
  apply Bool.negb_true_iff in Hnb.
  unfold f2_rule.
  pose proof f2_table_inner as T. rewrite forallb_forall in T. specialize (T c (memN_In _ _ Hmem)).
  destruct (lookup_rule c diff_rules) as [r|].
  - apply (apply_rule_zero r _ _ 2). exact T.
  - destruct (c =? TC_Beta).
    + unfold beta_rule. rewrite !cmul_zero_r. reflexivity.
    + rewrite Hnb. apply fdiff_zero; repeat constructor; assumption.
Qed.

Lemma fn_rule_zero : forall c self l dl x, fn_absent_ok c = true ->
  Forall (fun v => expr_eqb v x = false) l -> Forall (fun t => t = czero) dl -> fn_rule c self l dl x = czero.
Proof.
  intros c self l dl x Hc Ha Hz.
  unfold fn_absent_ok in Hc. apply andb_prop in Hc. destruct Hc as [Hnd Hc].
  apply Bool.negb_true_iff in Hnd.
  unfold fn_rule. rewrite Hnd.
  destruct (mem_code c deriv_if_dep_codes) eqn:Ed.
  - apply cifallzero_zero. exact Hz.
  - cbn [orb] in Hc. apply N.eqb_eq in Hc. subst c.
    change (mem_code TC_LeviCivita boolean_codes || mem_code TC_LeviCivita set_codes) with false. cbv iota.
    apply fdiff_zero; assumption.
Qed.

Lemma deriv_rule_zero : forall a syms x, Forall (fun v => expr_eqb v x = false) syms -> deriv_rule a syms czero x = czero.
Proof.
  intros a l x A. unfold deriv_rule.
  assert (E : existsb (fun p => expr_eqb p x) l = false).
  { destruct (existsb (fun p => expr_eqb p x) l) eqn:E; [|reflexivity].
    apply existsb_exists in E. destruct E as [p [Hp Hpe]].
    rewrite Forall_forall in A. rewrite (A p Hp) in Hpe. discriminate. }
  rewrite E. cbn [cifderivof is_czero czero e_zero].
  clear. induction l; cbn [fold_left]; [reflexivity|assumption].
Qed.

Lemma Forall_map_zero : forall {A} (f : A -> cx) (l : list A),
  Forall (fun a => f a = czero) l -> Forall (fun t => t = czero) (map f l).
Proof. intros A f l H. induction H; constructor; assumption. Qed.

Lemma Forall_flat_zero : forall (f : expr -> cx) (l : list (expr * expr)),
  Forall (fun p => f (fst p) = czero /\ f (snd p) = czero) l ->
  Forall (fun t => t = czero) (flat_map (fun p => [f (fst p); f (snd p)]) l).
Proof. intros f l H. induction H as [|p r [H1 H2] _ IH]; cbn [flat_map app]; repeat constructor; assumption. Qed.

(* the hypotheses of the theorem about a dictionary or an argument list (all entries agree, all are guarded,
   none mentions x) hand each entry its own three hypotheses *)
Lemma Forall_guarded : forall {A} (va ag oc : A -> bool) (Q : A -> Prop) l,
  forallb va l = true -> forallb ag l = true -> existsb oc l = false ->
  Forall (fun a => va a = true -> ag a = true -> oc a = false -> Q a) l -> Forall Q l.
Proof.
  intros A va ag oc Q l Hv Hg Ho H. induction H as [|a r Ha _ IH]; [constructor|].
  cbn [forallb existsb] in Hv, Hg, Ho.
  apply andb_prop in Hv, Hg. apply Bool.orb_false_elim in Ho. destruct Hv, Hg, Ho. constructor; auto.
Qed.

(* no argument is the variable *)
Lemma absent_args : forall x l, is_symbol x = true -> existsb (occurs x) l = false ->
  Forall (fun v => expr_eqb v x = false) l.
Proof.
  intros x l Hx Ho. rewrite Forall_forall. intros v Hin. apply occurs_eqb; [exact Hx|]. exact (existsb_false _ _ Ho v Hin).
Qed.

Theorem diff_absent_guarded : forall m x e,
  is_symbol x = true -> var_agree m x e = true -> absent_guard e = true ->
  occurs x e = false -> diffm m e x = czero.
Proof.
  intros m x e Hx. induction e using expr_ind'; intros Hv Hg Ho; cbn [diffm];
    cbn [var_agree absent_guard occurs] in Hv, Hg, Ho.
  - reflexivity.
  - apply Bool.eqb_prop in Hv. rewrite Hv, Ho. reflexivity.
  - apply Bool.eqb_prop in Hv. rewrite Hv, Ho. reflexivity.
  - reflexivity.
  - (* Add *)
    apply add_sum_zero, Forall_map_zero. exact (Forall_guarded _ _ _ _ d Hv Hg Ho H).
  - (* Mul *)
    apply mul_sum_zero, entry_diffs_zero, (Forall_flat_zero (fun a => diffm m a x)).
    apply (Forall_guarded _ _ _ _ d Hv Hg Ho). revert H. apply Forall_impl. intros p [H1 H2] V G O.
    apply andb_prop in V, G. apply Bool.orb_false_elim in O. destruct V, G, O. split; auto.
  - (* Pow *)
    apply andb_prop in Hv, Hg. apply Bool.orb_false_elim in Ho. destruct Hv, Hg, Ho.
    rewrite IHe1, IHe2 by assumption. apply pow_rule_zero.
  - (* F1 *)
    apply andb_prop in Hg. destruct Hg as [Hc Hg]. rewrite IHe by assumption.
    apply f1_rule_zero; [exact Hc | apply occurs_eqb; assumption].
  - (* F2 *)
    apply andb_prop in Hg. destruct Hg as [Hg Hg2]. apply andb_prop in Hg. destruct Hg as [Hc Hg1].
    apply andb_prop in Hv. destruct Hv as [Hv1 Hv2]. apply Bool.orb_false_elim in Ho. destruct Ho as [Ho1 Ho2].
    rewrite IHe1, IHe2 by assumption.
    apply f2_rule_zero; [exact Hc | apply occurs_eqb; assumption | apply occurs_eqb; assumption].
  - (* FN *)
    apply andb_prop in Hg. destruct Hg as [Hc Hg].
    apply fn_rule_zero; [exact Hc | apply absent_args; assumption|].
    apply Forall_map_zero. exact (Forall_guarded _ _ _ _ l Hv Hg Ho H).
  - (* FunSym *)
    apply fdiff_zero; [apply absent_args; assumption|].
    apply Forall_map_zero. exact (Forall_guarded _ _ _ _ l Hv Hg Ho H).
  - discriminate.
  - (* Derivative *)
    apply andb_prop in Hv, Hg. apply Bool.orb_false_elim in Ho. destruct Hv as [Hv1 _], Hg as [Hg1 _], Ho as [Ho1 Ho2].
    rewrite IHe by assumption. apply deriv_rule_zero, absent_args; assumption.
  - (* Subs *)
    apply andb_prop in Hv, Hg. apply Bool.orb_false_elim in Ho.
    destruct Hv as [Hv1 Hv2], Hg as [Hg1 Hg2], Ho as [Ho1 Ho2].
    rewrite IHe by assumption. unfold subs_rule.
    assert (D0 : (if existsb (fun p => expr_eqb (fst p) x) d then czero else csubst czero d) = czero)
      by (destruct (existsb (fun p : expr * expr => expr_eqb (fst p) x) d); reflexivity).
    rewrite D0. apply subs_loop_zero, Forall_map_zero.
    apply (Forall_guarded _ _ _ _ d Hv2 Hg2 Ho2). revert H. apply Forall_impl.
    intros p [_ H2] V G O.
    apply andb_prop in V, G. apply Bool.orb_false_elim in O. destruct V, G, O. auto.
  - (* Piecewise: only the values are guarded *)
    unfold pw_rule. apply cifallzero_zero, Forall_map_zero.
    apply (Forall_guarded _ _ _ _ l Hv Hg Ho). revert H. apply Forall_impl.
    intros p [H1 _] V G O. apply andb_prop in V. apply Bool.orb_false_elim in O. destruct V, O. auto.
  - discriminate.
  - discriminate.
  - discriminate.
Qed.

(* when bvisit(const Symbol&) compares with eq every leaf is recognised correctly *)
Lemma var_agree_by_eq : forall x e, var_agree SymByEq x e = true.
Proof.
  intros x e.
  assert (Hl : forall l, Forall (fun a => var_agree SymByEq x a = true) l -> forallb (var_agree SymByEq x) l = true).
  { intros l H. apply forallb_forall. rewrite Forall_forall in H. exact H. }
  assert (Hp : forall l : list (expr * expr),
             Forall (fun p => var_agree SymByEq x (fst p) = true /\ var_agree SymByEq x (snd p) = true) l ->
             forallb (fun p => var_agree SymByEq x (fst p) && var_agree SymByEq x (snd p)) l = true).
  { intros l H. apply forallb_forall. rewrite Forall_forall in H. intros p Hin. destruct (H p Hin) as [-> ->]. reflexivity. }
  induction e using expr_ind'; cbn [var_agree is_var_mode]; rewrite ?IHe1, ?IHe2, ?IHe;
    try reflexivity; try apply Bool.eqb_reflx; try (apply Hl; exact H); try (apply Hp; exact H).
  apply forallb_forall. rewrite Forall_forall in H. exact H.
Qed.

(* the source as it is now: bvisit(const Symbol&) compares with eq *)
Lemma var_agree_current : forall x e, var_agree sym_mode x e = true.
Proof. exact var_agree_by_eq. Qed.

Theorem diff_absent : forall x e,
  is_symbol x = true -> absent_guard e = true -> occurs x e = false -> diff e x = czero.
Proof. intros x e Hx Hg Ho. apply diff_absent_guarded; auto using var_agree_current. Qed.
