(* C10 obligation: the generated differentiation rule of class Coth (translators/tr_diffrules.py, from
   DiffVisitor::bvisit(const Coth &)) has the shape apply(arg); result = mul(outer, result) and its outer
   factor is the derivative of the real function coth = cosh/sinh (y <> 0) at every point of the stated domain. *)
From SE Require Import Gen.TypeCodes C10.RuleSpec C10.RulesAll.
Theorem C10_rule_sound_Coth : rule_ok TC_Coth.
Proof. exact rule_sound_Coth. Qed.
Print Assumptions C10_rule_sound_Coth.
