(* C10 obligation: the generated differentiation rule of class Tanh (translators/tr_diffrules.py, from
   DiffVisitor::bvisit(const Tanh &)) has the shape apply(arg); result = mul(outer, result) and its outer
   factor is the derivative of the real function tanh at every point of the stated domain. *)
From SE Require Import Gen.TypeCodes C10.RuleSpec C10.RulesAll.
Theorem C10_rule_sound_Tanh : rule_ok TC_Tanh.
Proof. exact rule_sound_Tanh. Qed.
Print Assumptions C10_rule_sound_Tanh.
