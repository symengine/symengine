(* C10 obligation: the generated differentiation rule of class ASec (translators/tr_diffrules.py, from
   DiffVisitor::bvisit(const ASec &)) has the shape apply(arg); result = mul(outer, result) and its outer
   factor is the derivative of the real function asec y = acos (1/y) (y < -1 or 1 < y) at every point of the stated domain. *)
From SE Require Import Gen.TypeCodes C10.RuleSpec C10.RulesAll.
Theorem C10_rule_sound_ASec : rule_ok TC_ASec.
Proof. exact rule_sound_ASec. Qed.
Print Assumptions C10_rule_sound_ASec.
