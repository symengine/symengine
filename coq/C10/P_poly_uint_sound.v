(* C10 obligation: diff_upoly on a UIntPoly dictionary (exponent |-> integer coefficient) differentiated
   with respect to its own variable denotes the derivative of the polynomial function, at every real
   point and for every dictionary; with respect to another symbol the result is the zero polynomial. *)
From Coq Require Import Rdefinitions.
From Coquelicot Require Import Coquelicot.
From SE Require Import C10.DiffPoly C10.DiffPolyProofs.
Theorem C10_poly_uint_sound : forall (p : upoly) (t : R),
  is_derive (peval p) t (peval (diff_upoly true p) t) /\ diff_upoly false p = [].
Proof. intros p t. split; [apply diff_upoly_sound | reflexivity]. Qed.
Print Assumptions C10_poly_uint_sound.
