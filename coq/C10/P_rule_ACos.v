(* C10 obligation: the generated differentiation rule of class ACos (translators/tr_diffrules.py, from
   DiffVisitor::bvisit(const ACos &)) has the shape apply(arg); result = mul(outer, result) and its outer
   factor is the derivative of the real function acos (-1 < y < 1) at every point of the stated domain. *)
From SE Require Import Gen.TypeCodes C10.RuleSpec C10.RulesAll.
Theorem C10_rule_sound_ACos : rule_ok TC_ACos.
Proof. exact rule_sound_ACos. Qed.
Print Assumptions C10_rule_sound_ACos.
