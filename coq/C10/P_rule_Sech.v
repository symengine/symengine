(* C10 obligation: the generated differentiation rule of class Sech (translators/tr_diffrules.py, from
   DiffVisitor::bvisit(const Sech &)) has the shape apply(arg); result = mul(outer, result) and its outer
   factor is the derivative of the real function sech = 1/cosh at every point of the stated domain. *)
From SE Require Import Gen.TypeCodes C10.RuleSpec C10.RulesAll.
Theorem C10_rule_sound_Sech : rule_ok TC_Sech.
Proof. exact rule_sound_Sech. Qed.
Print Assumptions C10_rule_sound_Sech.
