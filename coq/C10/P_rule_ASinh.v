(* C10 obligation: the generated differentiation rule of class ASinh (translators/tr_diffrules.py, from
   DiffVisitor::bvisit(const ASinh &)) has the shape apply(arg); result = mul(outer, result) and its outer
   factor is the derivative of the real function arcsinh at every point of the stated domain. *)
From SE Require Import Gen.TypeCodes C10.RuleSpec C10.RulesAll.
Theorem C10_rule_sound_ASinh : rule_ok TC_ASinh.
Proof. exact rule_sound_ASinh. Qed.
Print Assumptions C10_rule_sound_ASinh.
