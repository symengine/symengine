(* C10 obligation: the generated differentiation rule of class Sinh (translators/tr_diffrules.py, from
   DiffVisitor::bvisit(const Sinh &)) has the shape apply(arg); result = mul(outer, result) and its outer
   factor is the derivative of the real function sinh at every point of the stated domain. *)
From SE Require Import Gen.TypeCodes C10.RuleSpec C10.RulesAll.
Theorem C10_rule_sound_Sinh : rule_ok TC_Sinh.
Proof. exact rule_sound_Sinh. Qed.
Print Assumptions C10_rule_sound_Sinh.
