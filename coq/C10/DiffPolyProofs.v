(* C10 -- diff_upoly returns the derivative of the polynomial function (UIntPoly, URatPoly). *)
From Coq Require Import Reals Lra Lia.
From Coquelicot Require Import Coquelicot.
From SE Require Import C10.DiffPoly.
Local Open Scope R_scope.

Lemma pder_const : forall (c t : R), is_derive (fun _ : R => c) t 0.
Proof. intros c t. exact (@is_derive_const R_AbsRing R_NormedModule c t). Qed.
Lemma pder_plus : forall (f g : R -> R) (t a b : R),
  is_derive f t a -> is_derive g t b -> is_derive (fun s => f s + g s) t (a + b).
Proof. intros f g t a b Hf Hg. exact (@is_derive_plus R_AbsRing R_NormedModule f g t a b Hf Hg). Qed.

Lemma der_monomial : forall (c : R) (k : nat) (t : R),
  is_derive (fun s => c * s ^ k) t (c * (INR k * t ^ pred k)).
Proof.
  intros c k t. apply is_derive_scal. apply is_derive_Reals, derivable_pt_lim_pow.
Qed.

(* a polynomial as a list of (exponent, coefficient) with coefficients read through [cv]; dropping the constant
   terms and mapping c x^k to (dc k c) x^(k-1), where dc k c has the value k * c, differentiates it *)
Section Poly.
  Variable C : Type.
  Variable cv : C -> R.
  Variable dc : N -> C -> C.
  Hypothesis dc_val : forall k c, cv (dc k c) = cv c * INR (N.to_nat k).

  Definition geval (p : list (N * C)) (t : R) : R :=
    fold_right (fun kc acc => cv (snd kc) * t ^ N.to_nat (fst kc) + acc) 0 p.

  Lemma diff_poly_sound : forall (p : list (N * C)) (t : R),
    is_derive (geval p) t
      (geval (flat_map (fun kc => if (fst kc =? 0)%N then [] else [((fst kc - 1)%N, dc (fst kc) (snd kc))]) p) t).
  Proof.
    intros p t. induction p as [|[k c] r IH]; cbn [geval fold_right flat_map fst snd].
    - apply pder_const.
    - evar_last.
      { apply pder_plus; [apply (der_monomial (cv c) (N.to_nat k) t) | exact IH]. }
      destruct (N.eqb_spec k 0) as [->|Hk]; cbn [app].
      + cbn [N.to_nat INR]. unfold geval. lra.
      + cbn [fold_right fst snd]. rewrite dc_val.
        replace (N.to_nat (k - 1)) with (pred (N.to_nat k)) by lia. unfold geval. ring.
  Qed.
End Poly.

Lemma INR_of_N : forall k, INR (N.to_nat k) = IZR (Z.of_N k).
Proof. intros k. rewrite INR_IZR_INZ. f_equal. lia. Qed.

Definition peval (p : upoly) (t : R) : R :=
  fold_right (fun kc acc => IZR (snd kc) * t ^ N.to_nat (fst kc) + acc) 0 p.

Theorem diff_upoly_sound : forall (p : upoly) (t : R),
  is_derive (peval p) t (peval (diff_upoly true p) t).
Proof.
  apply (diff_poly_sound Z IZR (fun k c => (c * Z.of_N k)%Z)).
  intros k c. rewrite mult_IZR, INR_of_N. reflexivity.
Qed.

Theorem diff_upoly_other_var : forall p, diff_upoly false p = [].
Proof. reflexivity. Qed.

Definition qval (q : Z * positive) : R := IZR (fst q) / IZR (Zpos (snd q)).
Definition qeval (p : qpoly) (t : R) : R :=
  fold_right (fun kc acc => qval (snd kc) * t ^ N.to_nat (fst kc) + acc) 0 p.

Lemma qnorm_val : forall n d, qval (qnorm n d) = IZR n / IZR (Zpos d).
Proof.
  intros n d. unfold qnorm, qval. cbn [fst snd].
  set (g := Z.gcd n (Zpos d)).
  assert (Hg : (0 < g)%Z).
  { pose proof (Z.gcd_nonneg n (Zpos d)). destruct (Z.eq_dec g 0) as [E|]; [|lia].
    apply Z.gcd_eq_0_r in E. lia. }
  destruct (Z.gcd_divide_l n (Zpos d)) as [a Ha]. destruct (Z.gcd_divide_r n (Zpos d)) as [b Hb].
  fold g in Ha, Hb. clearbody g.
  assert (Ea : (n / g = a)%Z) by (rewrite Ha; apply Z.div_mul; lia).
  assert (Eb : (Zpos d / g = b)%Z) by (rewrite Hb; apply Z.div_mul; lia).
  rewrite Ea, Eb.
  assert (Hbpos : (0 < b)%Z) by nia.
  rewrite Z2Pos.id by exact Hbpos.
  rewrite Ha, Hb. rewrite !mult_IZR.
  assert (IZR g <> 0) by (apply not_0_IZR; lia).
  assert (IZR b <> 0) by (apply not_0_IZR; lia).
  field. split; assumption.
Qed.

Theorem diff_uratpoly_sound : forall (p : qpoly) (t : R),
  is_derive (qeval p) t (qeval (diff_uratpoly true p) t).
Proof.
  apply (diff_poly_sound (Z * positive) qval (fun k c => qnorm (fst c * Z.of_N k) (snd c))).
  intros k c. rewrite qnorm_val, mult_IZR, INR_of_N. unfold qval. field. apply not_0_IZR. lia.
Qed.
