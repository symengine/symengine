(* C10: the hypotheses of the theorems are satisfiable by non-trivial inputs, and the model computes
   non-trivial results. *)
From Coq Require Import Reals Lra Lia.
From SE Require Import C10.DiffReal C10.DiffCache.
Local Open Scope N_scope.

Definition sx : expr := ESym [120].
Definition sy : expr := ESym [121].
(* 3/2 + x^2 * sin(x)^(1/2) + 2*log(y*x) *)
Definition ex1 : expr :=
  EAdd (NRat 3 2)
       [(EMul (NInt 1) [(sx, ENum (NInt 2)); (EF1 TC_Sin sx, ENum (NRat 1 2))], NInt 1);
        (EF1 TC_Log (EMul (NInt 1) [(sy, ENum (NInt 1)); (sx, ENum (NInt 1))]), NInt 2)].

(* ex1 is defined where sin x > 0 and x*y > 0, e.g. x = 1, y = 2 *)
Example C10_defined_example :
  defined (upd (fun s => if expr_eqb s sy then 2%R else 0%R) sx 1%R) ex1.
Proof.
  assert (Hs : (0 < sin 1)%R).
  { apply sin_gt_0; [lra|]. pose proof PI2_1. lra. }
  set (rho := upd (fun s => if expr_eqb s sy then 2%R else 0%R) sx 1%R).
  assert (Hx : rho sx = 1%R).
  { unfold rho, upd. replace (expr_eqb sx sx) with true by (vm_compute; reflexivity). reflexivity. }
  assert (Hy : rho sy = 2%R).
  { unfold rho, upd. replace (expr_eqb sx sy) with false by (vm_compute; reflexivity).
    replace (expr_eqb sy sy) with true by (vm_compute; reflexivity). reflexivity. }
  clearbody rho. unfold ex1. simpl. fold sx sy. rewrite ?Hx, ?Hy.
  rewrite !rpow_1. repeat split; try reflexivity; try (right; lia); try exact Hs; lra.
Qed.

(* the model's result for ex1 (a non-trivial construction term) *)
Example C10_diff_example :
  diff ex1 sx =
  CAdd (CMul (CE (ENum (NInt 1)))
          (CAdd (CMul (CMul (CE (ENum (NInt 1)))
                         (CMul (CMul (CE (ENum (NInt 2))) (CPow (CE sx) (CSub (CE (ENum (NInt 2))) (CE (ENum (NInt 1))))))
                               (CE (ENum (NInt 1)))))
                      (CE (EMul (NInt 1) [(EF1 TC_Sin sx, ENum (NRat 1 2))])))
                (CMul (CMul (CE (ENum (NInt 1)))
                         (CMul (CMul (CE (ENum (NRat 1 2)))
                                     (CPow (CE (EF1 TC_Sin sx)) (CSub (CE (ENum (NRat 1 2))) (CE (ENum (NInt 1))))))
                               (CMul (CFn Fcos [CE sx]) (CE (ENum (NInt 1))))))
                      (CE (EMul (NInt 1) [(sx, ENum (NInt 2))])))))
       (CMul (CE (ENum (NInt 2)))
          (CMul (CDiv (CE (ENum (NInt 1))) (CE (EMul (NInt 1) [(sy, ENum (NInt 1)); (sx, ENum (NInt 1))])))
                (CMul (CMul (CE (ENum (NInt 1))) (CE (ENum (NInt 1)))) (CE (EMul (NInt 1) [(sy, ENum (NInt 1))]))))).
Proof. vm_compute. reflexivity. Qed.

(* x absent: the guard and the hypothesis hold, the result is the literal 0 *)
Example C10_absent_example :
  let w := ESym [119] in
  is_symbol w = true /\ absent_guard ex1 = true /\ occurs w ex1 = false /\ occurs sx ex1 = true /\
  diff ex1 w = czero /\ diff_top true ex1 sx = diff_top false ex1 sx.
Proof. vm_compute. repeat split; reflexivity. Qed.

(* an undefined function: chain rule with a fresh dummy; its own variable: an unevaluated Derivative *)
Example C10_funsym_example :
  let f a := EFunSym [102] [a] in
  let xi := ESym [95; 120; 105; 95; 49] in
  diff (f (EPow sx (ENum (NInt 2)))) sx
  = CMul (CMul (CMul (CE (ENum (NInt 2))) (CPow (CE sx) (CSub (CE (ENum (NInt 2))) (CE (ENum (NInt 1))))))
               (CE (ENum (NInt 1))))
         (CSubsObj (CDeriv (CCreate (f (EPow sx (ENum (NInt 2)))) [CE xi]) [CE xi])
                   [(CE xi, CE (EPow sx (ENum (NInt 2))))])
  /\ diff (f sx) sx = CDeriv (CE (f sx)) [CE sx].
Proof. vm_compute. split; reflexivity. Qed.

(* eq sub-trees are identical: the hypothesis of the cache theorem *)
Example C10_eq_syntactic_example : eq_syntactic (EF1 TC_Sin sx).
Proof.
  assert (Hsub : forall a, subterm a (EF1 TC_Sin sx) -> a = EF1 TC_Sin sx \/ a = sx).
  { intros a H. inversion H as [|? c ? Hc Ha]; subst; [left; reflexivity|].
    cbn [children In] in Hc. destruct Hc as [<-|[]].
    inversion Ha as [|? c' ? Hc' Ha']; subst; [right; reflexivity|]. destruct Hc'. }
  intros a b Ha Hb E. destruct (Hsub a Ha) as [->| ->], (Hsub b Hb) as [->| ->]; try reflexivity;
    vm_compute in E; discriminate.
Qed.
