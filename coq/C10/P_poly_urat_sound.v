(* C10 obligation: the same for URatPoly (rational coefficients, kept in lowest terms by [qnorm]). *)
From Coq Require Import Rdefinitions.
From Coquelicot Require Import Coquelicot.
From SE Require Import C10.DiffPoly C10.DiffPolyProofs.
Theorem C10_poly_urat_sound : forall (p : qpoly) (t : R),
  is_derive (qeval p) t (qeval (diff_uratpoly true p) t) /\ diff_uratpoly false p = [].
Proof. intros p t. split; [apply diff_uratpoly_sound | reflexivity]. Qed.
Print Assumptions C10_poly_urat_sound.
