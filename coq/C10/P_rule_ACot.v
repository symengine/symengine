(* C10 obligation: the generated differentiation rule of class ACot (translators/tr_diffrules.py, from
   DiffVisitor::bvisit(const ACot &)) has the shape apply(arg); result = mul(outer, result) and its outer
   factor is the derivative of the real function acot y = atan (1/y) (y <> 0) at every point of the stated domain. *)
From SE Require Import Gen.TypeCodes C10.RuleSpec C10.RulesAll.
Theorem C10_rule_sound_ACot : rule_ok TC_ACot.
Proof. exact rule_sound_ACot. Qed.
Print Assumptions C10_rule_sound_ACot.
