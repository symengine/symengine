(* C10 -- get_dummy returns a symbol that does not occur in the function it is made for (so the
   substitution Subs(Derivative(f(.., xi, ..), xi), xi |-> arg) captures nothing), and the shape of the
   chain rule the fdiff template produces for an undefined function. *)
From SE Require Import Expr.NumProofs C10.DiffModel C10.DiffInd C10.DiffAbsent.
From Coq Require Import Lia FinFun.
Local Open Scope N_scope.

(* names of the Symbol leaves of a tree *)
Fixpoint sym_names (e : expr) : list (list N) :=
  match e with
  | ESym n => [n]
  | ENum _ | EDummy _ _ | EConst _ | EBool _ | EAtom _ => []
  | EAdd _ d => flat_map (fun p => sym_names (fst p)) d
  | EMul _ d => flat_map (fun p => sym_names (fst p) ++ sym_names (snd p)) d
  | EPow b ex => sym_names b ++ sym_names ex
  | EF1 _ a => sym_names a
  | EF2 _ a b => sym_names a ++ sym_names b
  | EFN _ l => flat_map sym_names l
  | EFunSym _ l => flat_map sym_names l
  | ELex _ a b => sym_names a ++ sym_names b
  | EDeriv a l => sym_names a ++ flat_map sym_names l
  | ESubs a d => sym_names a ++ flat_map (fun p => sym_names (fst p) ++ sym_names (snd p)) d
  | EPw l => flat_map (fun p => sym_names (fst p) ++ sym_names (snd p)) l
  | EInterval s t _ _ => sym_names s ++ sym_names t
  end.

Lemma existsb_flat : forall {A} (f : A -> bool) (g : A -> list (list N)) (n : list N) (l : list A),
  Forall (fun a => f a = true <-> In n (g a)) l ->
  (existsb f l = true <-> In n (flat_map g l)).
Proof.
  intros A f g n l H. induction H as [|a r Ha _ IH]; cbn [existsb flat_map].
  - split; [discriminate | intros []].
  - rewrite Bool.orb_true_iff, in_app_iff, Ha, IH. reflexivity.
Qed.

Lemma existsb_flat_pair : forall (f : expr -> bool) (g : expr -> list (list N)) (n : list N) (l : list (expr * expr)),
  Forall (fun p => (f (fst p) = true <-> In n (g (fst p))) /\ (f (snd p) = true <-> In n (g (snd p)))) l ->
  (existsb (fun p => f (fst p) || f (snd p)) l = true <-> In n (flat_map (fun p => g (fst p) ++ g (snd p)) l)).
Proof.
  intros f g n l H. apply existsb_flat. rewrite Forall_forall in H |- *. intros p Hp. destruct (H p Hp) as [H1 H2].
  rewrite Bool.orb_true_iff, in_app_iff, H1, H2. reflexivity.
Qed.

Lemma occurs_sym_names : forall n e, occurs (ESym n) e = true <-> In n (sym_names e).
Proof.
  intros n e. induction e using expr_ind'; cbn [occurs sym_names].
  - split; [discriminate | intros []].
  - unfold expr_eqb. cbn [size Cmp.eqb Nat.add]. rewrite bytes_eqb_eq. cbn [In].
    split; [intros ->; auto | intros [->|[]]; reflexivity].
  - unfold expr_eqb. cbn [size Cmp.eqb Nat.add]. split; [discriminate | intros []].
  - split; [discriminate | intros []].
  - apply existsb_flat. exact H.
  - apply (existsb_flat_pair (occurs (ESym n)) sym_names). exact H.
  - rewrite Bool.orb_true_iff, in_app_iff, IHe1, IHe2. reflexivity.
  - exact IHe.
  - rewrite Bool.orb_true_iff, in_app_iff, IHe1, IHe2. reflexivity.
  - apply existsb_flat. exact H.
  - apply existsb_flat. exact H.
  - rewrite Bool.orb_true_iff, in_app_iff, IHe1, IHe2. reflexivity.
  - rewrite Bool.orb_true_iff, in_app_iff, IHe. apply or_iff_compat_l. apply existsb_flat. exact H.
  - rewrite Bool.orb_true_iff, in_app_iff, IHe. apply or_iff_compat_l.
    apply (existsb_flat_pair (occurs (ESym n)) sym_names). exact H.
  - apply (existsb_flat_pair (occurs (ESym n)) sym_names). exact H.
  - split; [discriminate | intros []].
  - rewrite Bool.orb_true_iff, in_app_iff, IHe1, IHe2. reflexivity.
  - split; [discriminate | intros []].
Qed.

(* at most size-many symbol leaves *)
Lemma flat_len : forall {A} (g : A -> list (list N)) (sz : A -> nat) (l : list A),
  Forall (fun a => (List.length (g a) <= sz a)%nat) l ->
  (List.length (flat_map g l) <= fold_right (fun a acc => sz a + acc) 0 l)%nat.
Proof.
  intros A g sz l H. induction H as [|a r Ha _ IH]; cbn [flat_map fold_right]; [simpl; lia|].
  rewrite app_length. lia.
Qed.

Lemma flat_len_pair : forall (l : list (expr * expr)),
  Forall (fun p => (List.length (sym_names (fst p)) <= size (fst p))%nat /\ (List.length (sym_names (snd p)) <= size (snd p))%nat) l ->
  (List.length (flat_map (fun p => sym_names (fst p) ++ sym_names (snd p)) l)
   <= fold_right (fun p acc => size (fst p) + size (snd p) + acc) 0 l)%nat.
Proof.
  intros l H. apply (flat_len _ (fun p : expr * expr => size (fst p) + size (snd p))%nat).
  rewrite Forall_forall in H |- *. intros p Hp. destruct (H p Hp). rewrite app_length. lia.
Qed.

Lemma sym_names_size : forall e, (List.length (sym_names e) <= size e)%nat.
Proof.
  induction e using expr_ind'; cbn [sym_names size List.length]; try lia;
    try (rewrite ?app_length; lia).
  - assert (HF : Forall (fun p : expr * number => (List.length (sym_names (fst p)) <= size (fst p) + 1)%nat) d).
    { rewrite Forall_forall in H |- *. intros p Hp. specialize (H p Hp). lia. }
    pose proof (flat_len _ (fun p : expr * number => size (fst p) + 1)%nat d HF). cbn beta in H0. lia.
  - pose proof (flat_len_pair d H). lia.
  - pose proof (flat_len sym_names size l H). lia.
  - pose proof (flat_len sym_names size l H). lia.
  - rewrite app_length. pose proof (flat_len sym_names size l H). lia.
  - rewrite app_length. pose proof (flat_len_pair d H). lia.
  - pose proof (flat_len_pair l H). lia.
Qed.

(* the candidates "_"^j ++ name *)
Definition cand (j : nat) (name : list N) : list N := repeat 95 j ++ name.

Lemma cand_shift : forall j name, cand j (95 :: name) = cand (S j) name.
Proof.
  intros j name. unfold cand. induction j as [|j IH]; cbn [repeat app]; [reflexivity|].
  rewrite IH. reflexivity.
Qed.

Lemma get_dummy_aux_spec : forall self fuel name,
  occurs (ESym (get_dummy_aux fuel self name)) self = false \/
  (forall j, (1 <= j <= S fuel)%nat -> In (cand j name) (sym_names self)).
Proof.
  intros self. induction fuel as [|f IH]; intros name; cbn [get_dummy_aux].
  - destruct (occurs (ESym (95 :: name)) self) eqn:E; [right | left; reflexivity].
    intros j Hj. assert (j = 1%nat) by lia. subst j. apply occurs_sym_names. exact E.
  - destruct (occurs (ESym (95 :: name)) self) eqn:E; [|left; exact E].
    destruct (IH (95 :: name)) as [Hl|Hr]; [left; exact Hl | right].
    intros j Hj. destruct j as [|[|j]]; [lia | apply occurs_sym_names; exact E |].
    rewrite <- cand_shift. apply Hr. lia.
Qed.

Theorem get_dummy_fresh : forall self name, occurs (ESym (get_dummy self name)) self = false.
Proof.
  intros self name. unfold get_dummy.
  destruct (get_dummy_aux_spec self (size self) name) as [H|H]; [exact H | exfalso].
  (* size self + 1 pairwise different names among at most size self leaves *)
  set (cs := map (fun j => cand j name) (seq 1 (S (size self)))).
  assert (Hincl : incl cs (sym_names self)).
  { intros c Hc. unfold cs in Hc. apply in_map_iff in Hc. destruct Hc as [j [<- Hj]].
    apply in_seq in Hj. apply H. lia. }
  assert (Hnd : NoDup cs).
  { unfold cs. apply (NoDup_map_inv (@List.length N)). rewrite map_map.
    apply Injective_map_NoDup; [|apply seq_NoDup].
    intros a b E. unfold cand in E. rewrite !app_length, !repeat_length in E. lia. }
  pose proof (NoDup_incl_length Hnd Hincl) as Hlen.
  unfold cs in Hlen. rewrite map_length, seq_length in Hlen.
  pose proof (sym_names_size self). lia.
Qed.

(* no argument is the variable itself: the derivative is the sum over the arguments of
   (derivative of the argument) * Subs(Derivative(f(.., xi_i, ..), xi_i), xi_i |-> argument), with xi_i
   fresh for f(args) *)
Definition chain_term (self : expr) (args : list expr) (i : nat) (v : expr) (dv : cx) : cx :=
  let xi := ESym (get_dummy self (xi_name (N.of_nat (S i)))) in
  cmul dv (CSubsObj (CDeriv (CCreate self (set_nth i (CE xi) (map CE args))) [CE xi]) [(CE xi, CE v)]).

Fixpoint chain_sum (self : expr) (args0 : list expr) (i : nat) (vs : list expr) (ds : list cx) (acc : cx) : cx :=
  match vs, ds with
  | v :: vs', d :: ds' => chain_sum self args0 (S i) vs' ds' (cadd acc (chain_term self args0 i v d))
  | _, _ => acc
  end.

Lemma fdiff_sum_funsym : forall self args0 vs i ds acc,
  fdiff_sum self TC_FunctionSymbol args0 i vs ds acc = chain_sum self args0 i vs ds acc.
Proof.
  intros self args0. induction vs as [|v vs IH]; intros i ds acc; [reflexivity|].
  destruct ds as [|d ds]; [reflexivity|]. cbn [fdiff_sum chain_sum]. rewrite IH. reflexivity.
Qed.

Theorem funsym_chain_rule : forall m name args x,
  Forall (fun v => expr_eqb v x = false) args ->
  let self := EFunSym name args in
  diffm m self x = chain_sum self args 0 args (map (fun a => diffm m a x) args) czero
  /\ forall i, occurs (ESym (get_dummy self (xi_name (N.of_nat (S i))))) self = false.
Proof.
  intros m name args x H self. subst self. split; [|intros i; apply get_dummy_fresh].
  cbn [diffm]. unfold fdiff. rewrite (special_nil _ args x 0%nat H). apply fdiff_sum_funsym.
Qed.

(* the variable itself is the only argument that depends on x: an unevaluated Derivative *)
Theorem funsym_own_variable : forall m name x,
  is_symbol x = true -> expr_eqb x x = true ->
  diffm m (EFunSym name [x]) x = CDeriv (CE (EFunSym name [x])) [CE x].
Proof.
  intros m name x Hs Hx. cbn [diffm map]. unfold fdiff. cbn [special].
  rewrite Hx. cbn [andb]. unfold known. cbn [lookup_fdiff fdiff_rules].
  replace (lookup_fdiff TC_FunctionSymbol fdiff_rules) with (@None (N * rexp)) by (vm_compute; reflexivity).
  cbn [app drop_nth]. reflexivity.
Qed.
