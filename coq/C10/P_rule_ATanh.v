(* C10 obligation: the generated differentiation rule of class ATanh (translators/tr_diffrules.py, from
   DiffVisitor::bvisit(const ATanh &)) has the shape apply(arg); result = mul(outer, result) and its outer
   factor is the derivative of the real function atanh y = 1/2 ln ((1+y)/(1-y)) (-1 < y < 1) at every point of the stated domain. *)
From SE Require Import Gen.TypeCodes C10.RuleSpec C10.RulesAll.
Theorem C10_rule_sound_ATanh : rule_ok TC_ATanh.
Proof. exact rule_sound_ATanh. Qed.
Print Assumptions C10_rule_sound_ATanh.
