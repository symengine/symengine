(* C10 obligation: the generated differentiation rule of class Csc (translators/tr_diffrules.py, from
   DiffVisitor::bvisit(const Csc &)) has the shape apply(arg); result = mul(outer, result) and its outer
   factor is the derivative of the real function csc = 1/sin (sin y <> 0) at every point of the stated domain. *)
From SE Require Import Gen.TypeCodes C10.RuleSpec C10.RulesAll.
Theorem C10_rule_sound_Csc : rule_ok TC_Csc.
Proof. exact rule_sound_Csc. Qed.
Print Assumptions C10_rule_sound_Csc.
