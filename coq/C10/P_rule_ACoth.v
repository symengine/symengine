(* C10 obligation: the generated differentiation rule of class ACoth (translators/tr_diffrules.py, from
   DiffVisitor::bvisit(const ACoth &)) has the shape apply(arg); result = mul(outer, result) and its outer
   factor is the derivative of the real function acoth y = atanh (1/y) (y < -1 or 1 < y) at every point of the stated domain. *)
From SE Require Import Gen.TypeCodes C10.RuleSpec C10.RulesAll.
Theorem C10_rule_sound_ACoth : rule_ok TC_ACoth.
Proof. exact rule_sound_ACoth. Qed.
Print Assumptions C10_rule_sound_ACoth.
