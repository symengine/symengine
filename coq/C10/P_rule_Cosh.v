(* C10 obligation: the generated differentiation rule of class Cosh (translators/tr_diffrules.py, from
   DiffVisitor::bvisit(const Cosh &)) has the shape apply(arg); result = mul(outer, result) and its outer
   factor is the derivative of the real function cosh at every point of the stated domain. *)
From SE Require Import Gen.TypeCodes C10.RuleSpec C10.RulesAll.
Theorem C10_rule_sound_Cosh : rule_ok TC_Cosh.
Proof. exact rule_sound_Cosh. Qed.
Print Assumptions C10_rule_sound_Cosh.
