(* C10 obligation: the generated differentiation rule of class Cos (translators/tr_diffrules.py, from
   DiffVisitor::bvisit(const Cos &)) has the shape apply(arg); result = mul(outer, result) and its outer
   factor is the derivative of the real function cos at every point of the stated domain. *)
From SE Require Import Gen.TypeCodes C10.RuleSpec C10.RulesAll.
Theorem C10_rule_sound_Cos : rule_ok TC_Cos.
Proof. exact rule_sound_Cos. Qed.
Print Assumptions C10_rule_sound_Cos.
