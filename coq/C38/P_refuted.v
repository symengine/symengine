(* C38: outside the property's domain (a repeated grid point) the weights are zoo/nan --
   SymEngine's div(a, 0) returns ComplexInf/NaN instead of throwing; witness evaluated by the
   kernel and replayed on the library by the correspondence runs of checks/C38.py.
   (On an empty grid and on an index space that wraps the library throws: P_fdiff_in_bounds.v, and the
   `fixed:` entries of known_findings.txt.) *)
From SE Require Import C38.FdiffSpec.
Theorem C38_exact_refuted_repeated_point :
  exists (grid : list Qc) (around : Qc) (max_deriv : N),
    guard_size (length grid) max_deriv = true /\
    exists w, fdiff grid max_deriv around = Ok w /\ forallb is_rational w = false.
Proof.
  exists (cons (Q2Qc 1) (cons (Q2Qc 1) nil)), (Q2Qc 1), 1%N.
  split; [vm_compute; reflexivity|].
  eexists. split; vm_compute; reflexivity.
Qed.
Print Assumptions C38_exact_refuted_repeated_point.
