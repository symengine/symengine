(* C38 obligation (closed form, hence uniqueness of the result): for every non-empty grid of
   DISTINCT rational points whose index space fits in 32 bits, every centre and every maximum
   order, the vector returned by generate_fdiff_weights_vector is completely determined:
   weights[j + k*len_g] is the k-th derivative at the centre of the Lagrange basis polynomial of
   node j over the whole grid ([lagrange] builds that polynomial as a coefficient list).  A change
   to the recurrence that still satisfies exactness only on some polynomials cannot satisfy
   this. *)
From SE Require Import C38.FdiffSpec.
From SE Require C38.FdiffMath.
Theorem C38_fornberg_closed_form :
  forall (grid : list Qc) (around : Qc) (max_deriv : N),
    NoDup grid -> guard_size (length grid) max_deriv = true ->
    exists w : list FdiffModel.val,
      fdiff grid max_deriv around = Ok w /\
      forall j k : nat, lt j (length grid) -> le k (N.to_nat max_deriv) ->
        nth (Nat.add j (Nat.mul k (length grid))) w VNan
        = VQ (peval (pderivn k (lagrange grid j)) around).
Proof. exact (@FdiffMath.fornberg_closed_form). Qed.
Print Assumptions C38_fornberg_closed_form.
