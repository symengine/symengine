(* C38: the hypotheses of the theorems are met by a concrete non-trivial input and the model
   computes the classical weights on it (evaluated by the kernel). *)
From SE Require Import C38.FdiffSpec C38.FdiffDistinct.
Local Open Scope Q_scope.
Definition qv (v : val) : option Q := match v with VQ q => Some (this q) | _ => None end.
Definition ex_grid : list Qc := map Q2Qc [0; 1 # 2; 2; -1].
(* the guards hold *)
Example C38_example_guards :
  NoDup ex_grid /\ guard_size (length ex_grid) 3 = true.
Proof. split; [apply qc_distinct_NoDup|]; vm_compute; reflexivity. Qed.
(* central second difference 1,-2,1 on -1,0,1 *)
Example C38_example_central :
  match fdiff (map Q2Qc [-1; 0; 1]) 2 (Q2Qc 0) with
  | Ok w => map qv w
  | _ => []
  end = map Some [0; 1; 0; -1 # 2; 0; 1 # 2; 1; -2; 1].
Proof. vm_compute. reflexivity. Qed.
(* the weights of ex_grid at 1/3, orders 0..3, are exact on p = 1 + 2x + 3x^2 + 4x^3 *)
Example C38_example_exact :
  match fdiff ex_grid 3 (Q2Qc (1 # 3)) with
  | Ok w => map (fun k => this (apply_weights w ex_grid k (map Q2Qc [1; 2; 3; 4]))) [0; 1; 2; 3]%nat
  | _ => []
  end = map (fun k => this (peval (pderivn k (map Q2Qc [1; 2; 3; 4])) (Q2Qc (1 # 3)))) [0; 1; 2; 3]%nat
  /\ this (peval (pderivn 2 (map Q2Qc [1; 2; 3; 4])) (Q2Qc (1 # 3))) = 14.
Proof. split; vm_compute; reflexivity. Qed.
(* the Lagrange basis lists are the schoolbook ones: nodes 0, 1/2, 2: l_1 = -4/3 x^2 + 8/3 x *)
Example C38_example_lagrange :
  map this (lagrange (map Q2Qc [0; 1 # 2; 2]) 1) = [0; 8 # 3; -4 # 3].
Proof. vm_compute. reflexivity. Qed.
(* after 2 of the 3 rounds on ex_grid: column 3 is still zero, column 1 is the derivative of l_1 *)
Example C38_example_stage :
  match fdiff_stages 2 ex_grid 3 (Q2Qc (1 # 3)) with
  | Ok (_, _, w) => (qv (nth (1 + 1 * 4) w VNan), qv (nth (3 + 1 * 4) w VNan))
  | _ => (None, None)
  end = (Some (this (peval (pderivn 1 (lagrange (firstn 3 ex_grid) 1)) (Q2Qc (1 # 3)))), Some 0)
  /\ this (peval (pderivn 1 (lagrange (firstn 3 ex_grid) 1)) (Q2Qc (1 # 3))) = 16 # 9.
Proof. split; vm_compute; reflexivity. Qed.
(* both sides of the totality theorem occur: the empty grid and a wrapping index space throw *)
Example C38_example_throws :
  fdiff [] 0 (Q2Qc 0) = ErrExn EXN_SYMENGINE /\
  fdiff (map Q2Qc [0; 1]) 2147483648 (Q2Qc 0) = ErrExn EXN_SYMENGINE /\
  guard_size 2 2147483648 = false /\ guard_size 0 0 = false.
Proof. repeat split; vm_compute; reflexivity. Qed.
Print Assumptions C38_example_exact.
