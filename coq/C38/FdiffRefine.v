(* C38 -- layer A of the proof: the imperative model (flat array, 32-bit index
   arithmetic, checked accesses, in-place updates with k running downwards) computes,
   whenever the index space fits ([guard_size]), the purely functional recurrence
   [iloopF] on matrices  nat -> nat -> val  -- and never leaves its arrays.
   No assumption on the grid values is needed here (repeated points included).      *)
From SE Require Import C38.FdiffModel.
From Coq Require Import Lia ZifyBool ZifyNat ZifyN.
Local Open Scope nat_scope.
Local Open Scope res_scope.

(* [F j] is column j: the entries of orders 0, 1, ... of grid point j *)
Definition mat := nat -> nat -> val.

Definition qc_of_nat (k : nat) : Qc := qc_of_N (N.of_nat k).

Definition setcol (F : mat) (j : nat) (c : nat -> val) : mat :=
  fun j' => if j' =? j then c else F j'.

Lemma setcol_eq F j c : setcol F j c j = c.
Proof. unfold setcol. rewrite Nat.eqb_refl. reflexivity. Qed.

Lemma setcol_neq F j c j' : j' <> j -> setcol F j c j' = F j'.
Proof. unfold setcol. intros H. apply Nat.eqb_neq in H. rewrite H. reflexivity. Qed.

(* The shape of both updates of the code.  From a column [c] : order 0 becomes [g0 (c 0)],
   the orders k = 1..mn become [g k (c (k-1)) (c k)]; above [mn] the entries of [c'] stay. *)
Definition colop (g0 : val -> val) (g : nat -> val -> val -> val) (mn : nat)
           (c c' : nat -> val) : nat -> val :=
  fun k => match k with
           | O => g0 (c 0)
           | S k' => if k <=? mn then g k (c k') (c k) else c' k
           end.

(* a column multiplied by the new linear factor *)
Definition old0 (c4 c3 : Qc) (v : val) : val := vdivq (vmulq c4 v) c3.
Definition oldk (c4 c3 : Qc) (k : nat) (u v : val) : val :=
  vdivq (vsub (vmulq c4 v) (vmulq (qc_of_nat k) u)) c3.
(* column i created from column i-1 *)
Definition new0 (c1 c5 c2 : Qc) (v : val) : val :=
  vmulq qcm1 (vdivq (vmulq c1 (vmulq c5 v)) c2).
Definition newk (c1 c5 c2 : Qc) (k : nat) (u v : val) : val :=
  vdivq (vmulq c1 (vsub (vmulq (qc_of_nat k) u) (vmulq c5 v))) c2.

Section Pure.
  Variable grid : list Qc.
  Variable a : Qc.
  Variable md : nat.

  Definition gpt (j : nat) : Qc := nth j grid qc0.

  Definition jstepF (i j mn : nat) (c1 c4 c5 : Qc) (st : Qc * mat) : Qc * mat :=
    let '(c2, F) := st in
    let c3 := Qcminus (gpt i) (gpt j) in
    let c2 := Qcmult c2 c3 in
    let F1 := if j =? i - 1
              then setcol F i (colop (new0 c1 c5 c2) (newk c1 c5 c2) mn (F (i - 1)) (F i))
              else F in
    (c2, setcol F1 j (colop (old0 c4 c3) (oldk c4 c3) mn (F1 j) (F1 j))).

  Fixpoint jloopF (cnt i j mn : nat) (c1 c4 c5 : Qc) (st : Qc * mat) : Qc * mat :=
    match cnt with
    | O => st
    | S cnt' => jloopF cnt' i (S j) mn c1 c4 c5 (jstepF i j mn c1 c4 c5 st)
    end.

  Definition istepF (i : nat) (st : Qc * Qc * mat) : Qc * Qc * mat :=
    let '(c1, c4, F) := st in
    let mn := Nat.min i md in
    let c5 := c4 in
    let c4 := Qcminus (gpt i) a in
    let '(c2, F') := jloopF i i 0 mn c1 c4 c5 (qc1, F) in
    (c2, c4, F').

  Fixpoint iloopF (cnt i : nat) (st : Qc * Qc * mat) : Qc * Qc * mat :=
    match cnt with
    | O => st
    | S cnt' => iloopF cnt' (S i) (istepF i st)
    end.

  Definition F0 : mat := fun j k => if (j =? 0) && (k =? 0) then VQ qc1 else VQ qc0.

  Definition initF : Qc * Qc * mat := (qc1, Qcminus (gpt 0) a, F0).
End Pure.

Lemma length_upd {A} (l : list A) i v : length (upd l i v) = length l.
Proof. revert i; induction l; destruct i; simpl; auto. Qed.

Lemma nth_error_upd {A} (l : list A) i i' v :
  i < length l -> nth_error (upd l i v) i' = if i' =? i then Some v else nth_error l i'.
Proof.
  revert i i'; induction l; destruct i, i'; simpl; intros; try lia; auto.
  apply IHl. lia.
Qed.

Lemma get_of_nat {A} (l : list A) i x :
  nth_error l i = Some x -> get l (N.of_nat i) = Ok x.
Proof. unfold get. rewrite Nat2N.id. intros ->. reflexivity. Qed.

Lemma set_of_nat {A} (l : list A) i v :
  i < length l -> set l (N.of_nat i) v = Ok (upd l i v).
Proof.
  unfold set. intros H. rewrite Nat2N.id.
  destruct (N.ltb_spec (N.of_nat i) (N.of_nat (length l))); [reflexivity | lia].
Qed.

Lemma nth_error_repeat {A} (x : A) m i : i < m -> nth_error (repeat x m) i = Some x.
Proof. revert i; induction m; destruct i; simpl; intros; try lia; auto. apply IHm; lia. Qed.

Lemma u32_small x : (x < W32)%N -> u32 x = x.
Proof. apply N.mod_small. Qed.

Lemma usub1 k : 0 < k -> (N.of_nat k < W32)%N -> usub (N.of_nat k) 1 = N.of_nat (k - 1).
Proof. unfold usub, W32. change (1 mod 4294967296)%N with 1%N. lia. Qed.

Lemma uadd1 j : (N.of_nat (S j) < W32)%N -> uadd (N.of_nat j) 1 = N.of_nat (S j).
Proof. unfold uadd, W32. lia. Qed.

Lemma N_of_nat_eqb i j : (N.of_nat i =? N.of_nat j)%N = (i =? j).
Proof. lia. Qed.

Section Refine.
  Variable grid : list Qc.
  Variable a : Qc.
  Variable md : nat.
  Let n := length grid.
  Hypothesis Hn : 0 < n.
  Hypothesis Hsz : (N.of_nat n * (N.of_nat md + 1) < W32)%N.

  Let lenw := n * (md + 1).

  (* cell (j, k) of the matrix lies at  j + k * len_g *)
  Definition cell (j k : nat) : N := N.of_nat (j + k * n).

  Lemma cell_lt j k : j < n -> k <= md -> j + k * n < lenw /\ (N.of_nat lenw < W32)%N.
  Proof using Hn Hsz. unfold lenw. intros. nia. Qed.

  Lemma n_lt : (N.of_nat n < W32)%N.
  Proof using Hn Hsz. nia. Qed.

  Lemma md_lt : (N.of_nat md < W32)%N.
  Proof using Hn Hsz. nia. Qed.

  Lemma widx_cell j k :
    j < n -> k <= md -> widx (N.of_nat j) (N.of_nat k) (N.of_nat n) = cell j k.
  Proof.
    intros Hj Hk. pose proof (cell_lt j k Hj Hk).
    unfold widx, uadd, umul, cell.
    replace (N.of_nat k * N.of_nat n)%N with (N.of_nat (k * n)) by lia.
    rewrite (N.mod_small (N.of_nat (k * n))) by lia.
    rewrite N.mod_small by lia. lia.
  Qed.

  Lemma cell0 j : N.of_nat j = cell j 0.
  Proof. unfold cell. f_equal. lia. Qed.

  (* the flat array [w] holds the matrix [F] *)
  Definition repr (w : list val) (F : mat) : Prop :=
    length w = lenw /\
    forall j k, j < n -> k <= md -> nth_error w (j + k * n) = Some (F j k).

  (* a piece of the code succeeds, returns the scalars of the functional state [st] and leaves
     an array that holds its matrix *)
  Definition sim {C} (r : res (C * list val)) (st : C * mat) : Prop :=
    exists w, r = Ok (fst st, w) /\ repr w (snd st).

  Lemma repr_ext w F G :
    repr w F -> (forall j k, j < n -> k <= md -> F j k = G j k) -> repr w G.
  Proof. intros [L H] E. split; auto. intros. rewrite H, E; auto. Qed.

  Definition updF (F : mat) j k v : mat :=
    fun j' k' => if (j' =? j) && (k' =? k) then v else F j' k'.

  Lemma repr_get w F j k :
    repr w F -> j < n -> k <= md -> get w (cell j k) = Ok (F j k).
  Proof using. intros [L H] Hj Hk. apply get_of_nat. auto. Qed.

  Lemma repr_set w F j k v :
    repr w F -> j < n -> k <= md ->
    exists w', set w (cell j k) v = Ok w' /\ repr w' (updF F j k v).
  Proof.
    intros [L H] Hj Hk. destruct (cell_lt j k Hj Hk) as [Hc _].
    exists (upd w (j + k * n) v). split; [apply set_of_nat; lia|].
    split; [rewrite length_upd; exact L|].
    intros j' k' Hj' Hk'. rewrite nth_error_upd, H by lia; auto. unfold updF.
    destruct (Nat.eqb_spec (j' + k' * n) (j + k * n)) as [E|E].
    - assert (k' = k) by nia. assert (j' = j) by nia. subst. rewrite !Nat.eqb_refl. reflexivity.
    - destruct (Nat.eqb_spec j' j); destruct (Nat.eqb_spec k' k); subst; auto. contradiction.
  Qed.

  Lemma updF_neq F j k v j' k' : k' <> k -> updF F j k v j' k' = F j' k'.
  Proof. unfold updF. intros H. apply Nat.eqb_neq in H. rewrite H, andb_false_r. reflexivity. Qed.

  (* what a k loop leaves: the orders 1..k of column [dst] computed from column [src] of [F] *)
  Definition kcol (g : nat -> val -> val -> val) (src dst k : nat) (F : mat) : mat :=
    fun j' k' => match k' with
                 | O => F j' 0
                 | S k'' => if (j' =? dst) && (k' <=? k) then g k' (F src k'') (F src k') else F j' k'
                 end.

  (* a loop that at round k stores  g k (F src (k-1)) (F src k)  in cell (dst, k) and goes on
     with round k-1 *)
  Definition kstep (loop : nat -> list val -> res (list val)) g src dst : Prop :=
    (forall w, loop 0 w = Ok w) /\
    forall k w F, repr w F -> S k <= md ->
      exists w1, loop (S k) w = loop k w1 /\
                 repr w1 (updF F dst (S k) (g (S k) (F src k) (F src (S k)))).

  (* Such a loop writes [kcol]: k runs downwards, so the cells read at round k are still those
     of [F], also when src = dst. *)
  Lemma kloop_ok loop g src dst :
    kstep loop g src dst ->
    forall k w F, repr w F -> k <= md ->
    exists w', loop k w = Ok w' /\ repr w' (kcol g src dst k F).
  Proof.
    intros [L0 LS]. induction k as [|k IH]; intros w F R Hk.
    - exists w. split; [apply L0|]. apply (repr_ext _ _ _ R).
      intros j' [|k'] _ _; unfold kcol; [|rewrite andb_false_r]; reflexivity.
    - destruct (LS k w F R Hk) as [w1 [E1 R1]].
      destruct (IH w1 _ R1 ltac:(lia)) as [w' [E' R']].
      exists w'. split; [congruence|]. apply (repr_ext _ _ _ R').
      intros j' [|k'] _ _; unfold kcol; [apply updF_neq; lia|].
      destruct (Nat.leb_spec (S k') k).
      + rewrite !updF_neq by lia. replace (S k' <=? S k) with true by lia. reflexivity.
      + rewrite andb_false_r. unfold updF. cbn [Nat.eqb Nat.leb].
        destruct (Nat.eqb_spec k' k) as [->|]; [rewrite Nat.leb_refl; reflexivity|].
        replace (k' <=? k) with false by lia. rewrite !andb_false_r. reflexivity.
  Qed.

  (* the k loop followed by the store of order 0 is a column operation *)
  Lemma column_ok loop g0 g src dst mn w F :
    kstep loop g src dst -> repr w F -> src < n -> dst < n -> mn <= md ->
    exists w1 w', loop mn w = Ok w1 /\ get w1 (N.of_nat src) = Ok (F src 0) /\
                  set w1 (N.of_nat dst) (g0 (F src 0)) = Ok w' /\
                  repr w' (setcol F dst (colop g0 g mn (F src) (F dst))).
  Proof.
    intros LS R Hs Hd Hmn.
    destruct (kloop_ok loop g src dst LS mn w F R Hmn) as [w1 [E1 R1]].
    destruct (repr_set w1 _ dst 0 (g0 (F src 0)) R1 Hd (Nat.le_0_l _)) as [w' [E' R']].
    exists w1, w'. rewrite (cell0 src), (cell0 dst).
    split; [exact E1|]. split; [exact (repr_get w1 _ src 0 R1 Hs (Nat.le_0_l _))|]. split; [exact E'|].
    apply (repr_ext _ _ _ R'). intros j' k' _ _. unfold updF, setcol, kcol, colop.
    destruct (Nat.eqb_spec j' dst) as [->|]; destruct k'; reflexivity.
  Qed.

  Lemma kloop_old_step j c4 c3 :
    j < n -> kstep (fun k => kloop_old k (N.of_nat j) (N.of_nat n) c4 c3) (oldk c4 c3) j j.
  Proof.
    intros Hj. split; [reflexivity|]. intros k w F R Hk. pose proof md_lt. cbn [kloop_old].
    rewrite usub1, !widx_cell by lia.
    rewrite (repr_get w F j (S k)), (repr_get w F j (S k - 1)) by (auto; lia). cbn [bind].
    replace (S k - 1) with k by lia.
    destruct (repr_set w F j (S k) (oldk c4 c3 (S k) (F j k) (F j (S k))) R Hj Hk) as [w1 [E1 R1]].
    exists w1. split; [|exact R1]. unfold oldk, qc_of_nat in E1. rewrite E1. reflexivity.
  Qed.

  Lemma kloop_new_step i c1 c5 c2 :
    0 < i -> i < n ->
    kstep (fun k => kloop_new k (N.of_nat i) (N.of_nat n) c1 c5 c2) (newk c1 c5 c2) (i - 1) i.
  Proof.
    intros Hi0 Hi. split; [reflexivity|]. intros k w F R Hk.
    pose proof md_lt. pose proof n_lt. cbn [kloop_new].
    rewrite !usub1, !widx_cell by lia.
    rewrite (repr_get w F (i - 1) (S k - 1)), (repr_get w F (i - 1) (S k)) by (auto; lia). cbn [bind].
    replace (S k - 1) with k by lia.
    destruct (repr_set w F i (S k) (newk c1 c5 c2 (S k) (F (i - 1) k) (F (i - 1) (S k))) R Hi Hk)
      as [w1 [E1 R1]].
    exists w1. split; [|exact R1]. unfold newk, qc_of_nat in E1. rewrite E1. reflexivity.
  Qed.

  Lemma get_grid j : j < n -> get grid (N.of_nat j) = Ok (gpt grid j).
  Proof. intros H. apply get_of_nat, nth_error_nth', H. Qed.

  Lemma jbody_ok w F i j mn c1 c4 c5 c2 :
    repr w F -> i < n -> j < i -> mn <= md ->
    sim (jbody grid (N.of_nat i) (N.of_nat j) (N.of_nat n) mn c1 c4 c5 (c2, w))
        (jstepF grid i j mn c1 c4 c5 (c2, F)).
  Proof.
    intros R Hi Hj Hmn. pose proof n_lt. unfold sim, jbody, jstepF.
    rewrite !get_grid by lia. cbn [bind fst snd].
    set (c3 := Qcminus (gpt grid i) (gpt grid j)). set (c2' := Qcmult c2 c3).
    rewrite usub1, N_of_nat_eqb by lia.
    assert (P1 : exists w1,
      (if j =? i - 1
       then do w' <- kloop_new mn (N.of_nat i) (N.of_nat n) c1 c5 c2' w;
            do a0 <- get w' (N.of_nat (i - 1));
            set w' (N.of_nat i) (vmulq qcm1 (vdivq (vmulq c1 (vmulq c5 a0)) c2'))
       else Ok w) = Ok w1 /\
      repr w1 (if j =? i - 1
               then setcol F i (colop (new0 c1 c5 c2') (newk c1 c5 c2') mn (F (i - 1)) (F i))
               else F)).
    { destruct (j =? i - 1); [|exists w; auto].
      destruct (column_ok _ (new0 c1 c5 c2') _ _ _ mn w F (kloop_new_step i c1 c5 c2' ltac:(lia) Hi) R)
        as [w1 [w2 [E1 [E2 [E3 R2]]]]]; try lia.
      exists w2. rewrite E1. cbn [bind]. rewrite E2. split; [exact E3 | exact R2]. }
    destruct P1 as [w1 [E1 R1]]. rewrite E1. cbn [bind].
    set (F1 := if j =? i - 1 then _ else F) in *.
    destruct (column_ok _ (old0 c4 c3) _ _ _ mn w1 F1 (kloop_old_step j c4 c3 ltac:(lia)) R1)
      as [w2 [w3 [E2 [E3 [E4 R3]]]]]; try lia.
    exists w3. rewrite E2. cbn [bind]. rewrite E3. cbn [bind]. unfold old0 in E4 at 1.
    rewrite E4. auto.
  Qed.

  Lemma jloop_ok cnt : forall w F i j mn c1 c4 c5 c2,
    repr w F -> i < n -> j + cnt = i -> mn <= md ->
    sim (jloop cnt grid (N.of_nat i) (N.of_nat j) (N.of_nat n) mn c1 c4 c5 (c2, w))
        (jloopF grid cnt i j mn c1 c4 c5 (c2, F)).
  Proof.
    pose proof n_lt.
    induction cnt as [|cnt IH]; intros w F i j mn c1 c4 c5 c2 R Hi Hj Hmn.
    - exists w. split; [reflexivity | exact R].
    - cbn [jloop jloopF].
      destruct (jbody_ok w F i j mn c1 c4 c5 c2 R Hi ltac:(lia) Hmn) as [w1 [E1 R1]].
      rewrite E1. cbn [bind]. rewrite uadd1 by lia.
      destruct (jstepF grid i j mn c1 c4 c5 (c2, F)) as [c2' F']. apply IH; auto. lia.
  Qed.

  (* both i and max_deriv at or above 2^31 would not fit the index space *)
  Lemma mn_of_ok i : i < n -> mn_of (N.of_nat i) (N.of_nat md) = Nat.min i md.
  Proof.
    intros Hi. unfold mn_of.
    assert (N.of_nat (Nat.min i md) < 2147483648)%N by (unfold W32 in Hsz; nia).
    destruct (N.ltb_spec (N.of_nat i) (N.of_nat md));
      match goal with |- (if ?c then _ else _) = _ => destruct (N.ltb_spec0 _ _ : reflect _ c) end; lia.
  Qed.

  Lemma ibody_ok w F i c1 c4 :
    repr w F -> 0 < i -> i < n ->
    sim (ibody grid a (N.of_nat i) (N.of_nat n) (N.of_nat md) (c1, c4, w))
        (istepF grid a md i (c1, c4, F)).
  Proof.
    intros R Hi0 Hi. unfold sim, ibody, istepF.
    rewrite mn_of_ok, get_grid, Nat2N.id by auto. cbn [bind].
    destruct (jloop_ok i w F i 0 (Nat.min i md) c1 (Qcminus (gpt grid i) a) c4 qc1 R Hi eq_refl
                (Nat.le_min_r _ _)) as [w1 [E1 R1]].
    cbn [N.of_nat] in E1. rewrite E1. cbn [bind].
    destruct (jloopF grid i i 0 (Nat.min i md) c1 (Qcminus (gpt grid i) a) c4 (qc1, F)) as [c2 F'].
    exists w1. split; [reflexivity | exact R1].
  Qed.

  Lemma iloop_ok cnt : forall w st i,
    repr w (snd st) -> 0 < i -> i + cnt <= n ->
    sim (iloop cnt grid a (N.of_nat i) (N.of_nat n) (N.of_nat md) (fst st, w))
        (iloopF grid a md cnt i st).
  Proof.
    pose proof n_lt.
    induction cnt as [|cnt IH]; intros w [[c1 c4] F] i R Hi0 Hi.
    - exists w. split; [reflexivity | exact R].
    - cbn [iloop iloopF fst snd] in *.
      destruct (ibody_ok w F i c1 c4 R Hi0 ltac:(lia)) as [w1 [E1 R1]].
      rewrite E1. cbn [bind]. rewrite uadd1 by lia.
      destruct (istepF grid a md i (c1, c4, F)) as [[c1' c4'] F'].
      apply (IH w1 (c1', c4', F')); auto; lia.
  Qed.

  Lemma repr_F0 : repr (upd (repeat (VQ qc0) lenw) 0 (VQ qc1)) F0.
  Proof.
    split; [rewrite length_upd; apply repeat_length|].
    intros j k Hj Hk. destruct (cell_lt j k Hj Hk).
    rewrite nth_error_upd, nth_error_repeat by (rewrite ?repeat_length; lia). unfold F0.
    destruct j, k; reflexivity || (cbn [Nat.eqb andb]; replace (_ =? 0) with false by nia; reflexivity).
  Qed.

  (* the first [stages] rounds stay inside the arrays and compute [iloopF stages] *)
  Theorem fdiff_stages_refines stages :
    stages < n ->
    sim (fdiff_stages stages grid (N.of_nat md) a) (iloopF grid a md stages 1 (initF grid a)).
  Proof using Hn Hsz.
    intros Hst. unfold fdiff_stages. fold n.
    pose proof n_lt. destruct (cell_lt 0 0 Hn (Nat.le_0_l _)) as [Hl L].
    destruct (N.eqb_spec (N.of_nat n) 0); [lia|].
    rewrite (u32_small (N.of_nat n)) by assumption.
    replace ((N.of_nat n * (N.of_nat md + 1)) mod W64)%N with (N.of_nat lenw)
      by (unfold lenw; rewrite N.mod_small; unfold W32, W64 in *; lia).
    destruct (N.ltb_spec 4294967295 (N.of_nat lenw)); [unfold W32 in L; lia|].
    rewrite u32_small, Nat2N.id by assumption.
    change 0%N with (N.of_nat 0). rewrite (get_grid 0 Hn). cbn [bind].
    rewrite (set_of_nat (repeat (VQ qc0) lenw) 0) by (rewrite repeat_length; lia). cbn [bind].
    apply (iloop_ok stages _ (initF grid a) 1 repr_F0); lia.
  Qed.

  Lemma repr_nth w F j k d :
    repr w F -> j < n -> k <= md -> nth (j + k * n) w d = F j k.
  Proof using. intros [L H] Hj Hk. apply nth_error_nth. auto. Qed.
End Refine.

(* every cell of a flat array of n columns and m rows is a cell j + k*n of the matrix *)
Lemma flat_all {A} (P : A -> Prop) (d : A) (w : list A) n m :
  0 < n -> length w = n * m ->
  (forall j k, j < n -> k < m -> P (nth (j + k * n) w d)) -> Forall P w.
Proof.
  intros Hn L HP. apply Forall_forall. intros v Hin.
  destruct (In_nth _ _ d Hin) as [idx [Hlt <-]]. rewrite L in Hlt.
  rewrite (Nat.div_mod idx n), Nat.add_comm, Nat.mul_comm by lia.
  apply HP; [apply Nat.mod_upper_bound | apply Nat.div_lt_upper_bound]; lia.
Qed.

Lemma guard_sizeP n max_deriv :
  guard_size n max_deriv = true ->
  0 < n /\ (N.of_nat n * (N.of_nat (N.to_nat max_deriv) + 1) < W32)%N.
Proof. unfold guard_size. lia. Qed.

(* generate_fdiff_weights_vector is its outer loop run len_g - 1 times *)
Lemma fdiff_stages_last (grid : list Qc) (max_deriv : N) (a : Qc) :
  (N.of_nat (length grid) < W32)%N ->
  fdiff grid max_deriv a
  = do '(_, _, w) <- fdiff_stages (length grid - 1) grid max_deriv a; Ok w.
Proof. intros H. unfold fdiff. rewrite u32_small, Nat2N.id by exact H. reflexivity. Qed.

(* generate_fdiff_weights_vector never leaves its arrays and returns len_g*(max_deriv+1)
   weights, for every non-empty grid whose index space fits in 32 bits -- whatever the
   grid values are (repeated points included). *)
Theorem fdiff_in_bounds (grid : list Qc) (max_deriv : N) (a : Qc) :
  guard_size (length grid) max_deriv = true ->
  exists w, fdiff grid max_deriv a = Ok w /\
            length w = length grid * (N.to_nat max_deriv + 1).
Proof.
  intros G. destruct (guard_sizeP _ _ G) as [Hn Hsz].
  destruct (fdiff_stages_refines grid a _ Hn Hsz (length grid - 1)) as [w [E [L _]]]; [lia|].
  rewrite fdiff_stages_last by (eapply n_lt; eassumption).
  rewrite N2Nat.id in E. rewrite E.
  destruct (iloopF _ _ _ _ _ _) as [[c1 c4] F]. exists w. split; [reflexivity | exact L].
Qed.

(* outside the guard the function throws SymEngineException *)
Lemma fdiff_throws (grid : list Qc) (max_deriv : N) (a : Qc) :
  (max_deriv < W32)%N -> (N.of_nat (length grid) < W32)%N ->
  guard_size (length grid) max_deriv = false ->
  fdiff grid max_deriv a = ErrExn EXN_SYMENGINE.
Proof.
  intros Hmd Hlen G. rewrite fdiff_stages_last by exact Hlen. unfold fdiff_stages.
  destruct (N.eqb_spec (N.of_nat (length grid)) 0) as [E|E]; [reflexivity|].
  rewrite u32_small by exact Hlen.
  assert (W32 <= N.of_nat (length grid) * (max_deriv + 1) < W64)%N
    by (unfold guard_size in G; unfold W32, W64 in *; nia).
  rewrite N.mod_small by lia.
  destruct (N.ltb_spec 4294967295 (N.of_nat (length grid) * (max_deriv + 1))); [reflexivity|].
  unfold W32 in *. lia.
Qed.

(* totality: for every grid (of fewer than 2^32 points) and every unsigned max_deriv the
   function either returns len_g*(max_deriv+1) weights or throws; it never leaves its arrays *)
Theorem fdiff_total (grid : list Qc) (max_deriv : N) (a : Qc) :
  (max_deriv < W32)%N -> (N.of_nat (length grid) < W32)%N ->
  (guard_size (length grid) max_deriv = true /\
   exists w, fdiff grid max_deriv a = Ok w /\
             length w = length grid * (N.to_nat max_deriv + 1))
  \/ (guard_size (length grid) max_deriv = false /\
      fdiff grid max_deriv a = ErrExn EXN_SYMENGINE).
Proof.
  intros Hmd Hlen. destruct (guard_size (length grid) max_deriv) eqn:G.
  - left. split; auto. apply fdiff_in_bounds; auto.
  - right. split; auto. apply fdiff_throws; auto.
Qed.
