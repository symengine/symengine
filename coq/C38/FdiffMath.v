(* C38 -- layer B of the proof (MathComp): the functional recurrence [iloopF] computes, stage by
   stage, the derivatives at the centre of the Lagrange basis polynomials of the points reached so
   far ([fornberg_invariant]); the closed form of the result, its exactness on polynomials of degree
   below the grid size and the partition of unity are read off the invariant at the last stage.
   Bridge: [phi : Qc -> rat] is an injective field morphism from the model's normalised
   rationals to MathComp's [rat]; polynomials-as-lists are mapped to {poly rat}.      *)
From SE Require Import C38.FdiffSpec C38.FdiffRefine.
From mathcomp Require Import ssreflect ssrfun ssrbool eqtype ssrnat seq bigop ssralg poly ssrnum ssrint rat.
From mathcomp Require Import ssrZ.
Close Scope Q_scope. Close Scope Qc_scope. Close Scope N_scope. Close Scope Z_scope.
Set Implicit Arguments.
Unset Strict Implicit.
Unset Printing Implicit Defensive.
Import GRing.Theory Num.Theory.
Local Open Scope ring_scope.

Definition phiQ (q : Q) : rat := (int_of_Z (Qnum q))%:~R / (int_of_Z (Zpos (Qden q)))%:~R.
Definition phi (q : Qc) : rat := phiQ (this q).

Lemma to_nat_gt0 p : (0 < Pos.to_nat p)%N.
Proof. exact/ltP/Pos2Nat.is_pos. Qed.

Lemma Negz_to_nat p : Negz (Pos.to_nat p).-1 = - Posz (Pos.to_nat p).
Proof. by rewrite NegzE prednK // to_nat_gt0. Qed.

Lemma den_neq0 p : (int_of_Z (Zpos p))%:~R != 0 :> rat.
Proof. by rewrite intr_eq0 /= eqz_nat -lt0n to_nat_gt0. Qed.

Lemma phiQ_eq p q : Qeq p q -> phiQ p = phiQ q.
Proof.
rewrite /Qeq /phiQ => E. apply/eqP. rewrite eqr_div ?den_neq0 //.
rewrite -!intrM -!rmorphM /=. have E' : (Qnum p * QDen q)%R = (Qnum q * QDen p)%R := E. by rewrite E'.
Qed.

Lemma int_of_Z_inj : injective int_of_Z.
Proof. exact: (can_inj int_of_ZK). Qed.

Lemma phiQ_inj p q : phiQ p = phiQ q -> Qeq p q.
Proof.
rewrite /Qeq /phiQ => /eqP. rewrite eqr_div ?den_neq0 // -!intrM -!rmorphM /=.
by move/eqP/intr_inj/int_of_Z_inj.
Qed.

Lemma phiQ_add p q : phiQ (Qplus p q) = phiQ p + phiQ q.
Proof.
rewrite /phiQ /Qplus; cbn [Qnum Qden]. rewrite addf_div ?den_neq0 //.
by rewrite Pos2Z.inj_mul -!intrM -intrD -!rmorphM -rmorphD.
Qed.

Lemma phiQ_mul p q : phiQ (Qmult p q) = phiQ p * phiQ q.
Proof.
rewrite /phiQ /Qmult; cbn [Qnum Qden]. rewrite mulf_div.
by rewrite Pos2Z.inj_mul -!intrM -!rmorphM.
Qed.

Lemma phiQ_opp p : phiQ (Qopp p) = - phiQ p.
Proof. by rewrite /phiQ /Qopp; cbn [Qnum Qden]; rewrite !rmorphN /= mulNr. Qed.

Lemma phiQ_inv p : phiQ (Qinv p) = (phiQ p)^-1.
Proof.
rewrite /phiQ /Qinv. case: p => [[|n|n] d] /=.
- by rewrite !mul0r invr0.
- by rewrite invf_div.
- by rewrite invf_div !Negz_to_nat !rmorphN /= invrN mulNr mulrN.
Qed.

(* normalisation does not change the value *)
Lemma phi_Q2Qc q : phi (Q2Qc q) = phiQ q.
Proof. by apply: phiQ_eq; exact: Qred_correct. Qed.

Lemma phiD x y : phi (Qcplus x y) = phi x + phi y.
Proof. by rewrite /Qcplus phi_Q2Qc phiQ_add. Qed.
Lemma phiM x y : phi (Qcmult x y) = phi x * phi y.
Proof. by rewrite /Qcmult phi_Q2Qc phiQ_mul. Qed.
Lemma phiN x : phi (Qcopp x) = - phi x.
Proof. by rewrite /Qcopp phi_Q2Qc phiQ_opp. Qed.
Lemma phiV x : phi (Qcinv x) = (phi x)^-1.
Proof. by rewrite /Qcinv phi_Q2Qc phiQ_inv. Qed.
Lemma phiB x y : phi (Qcminus x y) = phi x - phi y.
Proof. by rewrite /Qcminus phiD phiN. Qed.
Lemma phi_div x y : phi (Qcdiv x y) = phi x / phi y.
Proof. by rewrite /Qcdiv phiM phiV. Qed.
Lemma phi_inj : injective phi.
Proof. by move=> x y /phiQ_inj /Qc_is_canon. Qed.

Lemma phiQ_Z z : phiQ (inject_Z z) = (int_of_Z z)%:~R.
Proof. by rewrite /phiQ /inject_Z /= divr1. Qed.

Lemma phi_Z z : phi (Q2Qc (inject_Z z)) = (int_of_Z z)%:~R.
Proof. by rewrite phi_Q2Qc phiQ_Z. Qed.

Lemma phi0 : phi qc0 = 0.
Proof. exact: (phi_Z 0). Qed.
Lemma phi1 : phi qc1 = 1.
Proof. exact: (phi_Z 1). Qed.
Lemma phim1 : phi qcm1 = -1.
Proof. exact: (phi_Z (-1)). Qed.
Lemma phi_nat k : phi (qc_of_nat k) = k%:R.
Proof.
rewrite /qc_of_nat /qc_of_N phi_Z nat_N_Z.
have -> : Z.of_nat k = Z_of_int (Posz k) by [].
by rewrite Z_of_intK.
Qed.

Lemma qc_is_zeroE q : qc_is_zero q = (phi q == 0).
Proof.
rewrite /qc_is_zero /phi /phiQ mulf_eq0 invr_eq0 (negbTE (den_neq0 _)) orbF intr_eq0.
apply/idP/eqP => [/Z.eqb_eq -> //|E]. apply/Z.eqb_eq. apply: int_of_Z_inj. exact: E.
Qed.

Section Lagrange.
Variable F : fieldType.
Variable x : nat -> F.
Variable a : F.

(* Newton polynomial and the constants c1/c2 of the code *)
Definition Nw m : {poly F} := \prod_(0 <= l < m) ('X - (x l)%:P).
Definition dn m : F := \prod_(0 <= l < m) (x m - x l).
(* Lagrange basis polynomial of node j among the nodes 0..m *)
Definition L m j : {poly F} :=
  \prod_(0 <= l < m.+1 | l != j) ((x j - x l)^-1 *: ('X - (x l)%:P)).

Lemma L_recr m j : (j <= m)%N ->
  L m.+1 j = (x j - x m.+1)^-1 *: (L m j * ('X - (x m.+1)%:P)).
Proof.
move=> le_jm; rewrite /L big_mkcond big_nat_recr //= -big_mkcond /=.
have -> : (m.+1 != j) by rewrite neq_ltn ltnS le_jm orbT.
by rewrite -scalerAr.
Qed.

Lemma prod_nat_neq (R : Type) (idx : R) (op : Monoid.com_law idx) m (G : nat -> R) :
  \big[op/idx]_(0 <= l < m | l != m) G l = \big[op/idx]_(0 <= l < m) G l.
Proof.
rewrite big_nat_cond [RHS]big_nat_cond; apply: eq_bigl => l.
by case: ltngtP; rewrite ?andbF ?andbT.
Qed.

Lemma L_diag m : L m m = (dn m)^-1 *: Nw m.
Proof.
rewrite /L big_mkcond big_nat_recr //= -big_mkcond /= eqxx /= mulr1.
by rewrite prod_nat_neq scaler_prod prodfV.
Qed.

Lemma Nw_recr m : Nw m.+1 = Nw m * ('X - (x m)%:P).
Proof. by rewrite /Nw big_nat_recr. Qed.

Lemma L_new m : dn m != 0 ->
  L m.+1 m.+1 = (dn m / dn m.+1) *: (L m m * ('X - (x m)%:P)).
Proof.
move=> d0; rewrite !L_diag Nw_recr -scalerAl scalerA.
by rewrite mulrAC divff // mul1r.
Qed.

(* derivatives of a product with a linear factor, at a *)
Lemma horner_mul_lin (p : {poly F}) r : (p * ('X - r%:P)).[a] = p.[a] * (a - r).
Proof. by rewrite hornerM hornerXsubC. Qed.

Lemma derivn_mul_lin (p : {poly F}) r k :
  ((p * ('X - r%:P))^`(k.+1)).[a] = p^`(k).[a] *+ k.+1 + p^`(k.+1).[a] * (a - r).
Proof.
have -> : p * ('X - r%:P) = (p * 'X + 0%:P) - r *: p.
  by rewrite polyC0 addr0 mulrBr -mul_polyC [r%:P * p]mulrC.
rewrite derivnB derivnMXaddC derivnZ !hornerE hornerMn.
by rewrite mulrBr -addrA [_ * r]mulrC.
Qed.

Lemma size_Nw m : size (Nw m) = m.+1.
Proof. by rewrite /Nw size_prod_XsubC size_iota subn0. Qed.

Lemma size_L m j : (j <= m)%N -> (size (L m j) <= m.+1)%N.
Proof.
elim: m => [|m IH]; first by rewrite leqn0 => /eqP->; rewrite L_diag (leq_trans (size_scale_leq _ _)) // size_Nw.
rewrite leq_eqVlt => /orP[/eqP->|]; first by rewrite L_diag (leq_trans (size_scale_leq _ _)) // size_Nw.
rewrite ltnS => le_jm; rewrite L_recr // (leq_trans (size_scale_leq _ _)) //.
apply: (leq_trans (size_mul_leq _ _)); rewrite size_XsubC addn2 /=.
exact: IH.
Qed.

(* distinct nodes below n *)
Variable n : nat.
Hypothesis x_inj : forall i j, (i < n)%N -> (j < n)%N -> x i = x j -> i = j.

Lemma dn_neq0 m : (m < n)%N -> dn m != 0.
Proof using x_inj.
move=> lt_mn; rewrite /dn prodf_seq_neq0; apply/allP => l; rewrite mem_index_iota /= => lt_lm.
rewrite subr_eq0; apply/eqP => E.
have Eml := x_inj lt_mn (ltn_trans lt_lm lt_mn) E.
by rewrite Eml ltnn in lt_lm.
Qed.

Lemma L_node m j l : (m < n)%N -> (j <= m)%N -> (l <= m)%N -> (L m j).[x l] = (l == j)%:R.
Proof using x_inj.
move=> lt_mn le_jm le_lm; rewrite /L horner_prod.
case: (eqVneq l j) => [->|ne_lj].
  rewrite big_seq_cond big1 // => i; rewrite mem_index_iota /= ltnS => /andP[le_im ne_ij].
  rewrite hornerZ hornerXsubC mulVf // subr_eq0; apply/eqP => E.
  have Eji := x_inj (leq_ltn_trans le_jm lt_mn) (leq_ltn_trans le_im lt_mn) E.
  by rewrite Eji eqxx in ne_ij.
apply/eqP; rewrite prodf_seq_eq0; apply/hasP; exists l; first by rewrite mem_index_iota.
by rewrite ne_lj hornerZ hornerXsubC subrr mulr0 eqxx.
Qed.

Lemma size_sum_leq (I : Type) (r : seq I) (P : pred I) (G : I -> {poly F}) k :
  (forall i, P i -> (size (G i : {poly F}) <= k)%N) -> (size (\sum_(i <- r | P i) G i)%R <= k)%N.
Proof.
move=> H; elim/big_ind: _ => //; first by rewrite size_poly0.
by move=> p q Hp Hq; apply: (leq_trans (size_add _ _)); rewrite geq_max Hp Hq.
Qed.

(* Lagrange interpolation *)
Lemma interpolation m (p : {poly F}) : (m < n)%N -> (size p <= m.+1)%N ->
  \sum_(0 <= j < m.+1) p.[x j] *: L m j = p.
Proof using x_inj.
move=> lt_mn sz_p; apply/eqP; rewrite -subr_eq0; apply/eqP.
set q := _ - p.
have sz_q : (size q <= m.+1)%N.
  apply: (leq_trans (size_add _ _)); rewrite size_opp geq_max sz_p andbT.
  rewrite big_seq_cond; apply: size_sum_leq => j; rewrite mem_index_iota /= andbT ltnS => le_jm.
  by apply: (leq_trans (size_scale_leq _ _)); apply: size_L.
pose rs := [seq x l | l <- iota 0 m.+1].
have all_root : all (root q) rs.
  apply/allP => y /mapP[l]; rewrite mem_iota /= add0n ltnS => le_lm ->.
  rewrite /root /q hornerD hornerN horner_sum.
  rewrite (bigD1_seq l) ?iota_uniq ?mem_index_iota //=.
  rewrite hornerZ L_node // eqxx mulr1 big1_seq ?addr0 ?subrr //.
  move=> j; rewrite mem_index_iota /= ltnS => /andP[ne_jl le_jm].
  by rewrite hornerZ L_node // eq_sym (negbTE ne_jl) mulr0.
have uniq_rs : uniq rs.
  rewrite map_inj_in_uniq ?iota_uniq // => i j; rewrite !mem_iota /= !add0n => lt_i lt_j.
  by apply: x_inj; [apply: leq_trans lt_i lt_mn | apply: leq_trans lt_j lt_mn].
apply: contraTeq sz_q => q0; rewrite -ltnNge.
by have := max_poly_roots q0 all_root uniq_rs; rewrite size_map size_iota.
Qed.

(* the weights L_j^(k)(a) are exact on polynomials of size <= m+1 *)
Lemma exactness m k (p : {poly F}) : (m < n)%N -> (size p <= m.+1)%N ->
  \sum_(0 <= j < m.+1) (L m j)^`(k).[a] * p.[x j] = p^`(k).[a].
Proof using x_inj.
move=> lt_mn sz_p; rewrite -{2}(interpolation lt_mn sz_p).
rewrite raddf_sum horner_sum; apply: eq_bigr => j _ /=.
by rewrite derivnZ hornerZ mulrC.
Qed.

End Lagrange.

Lemma setcol_neqb (F : mat) j c j' : j' != j -> setcol F j c j' = F j'.
Proof. by move/eqP; exact: setcol_neq. Qed.

Definition vphi (v : FdiffModel.val) : option rat :=
  match v with VQ q => Some (phi q) | _ => None end.

Lemma vphi_mulq c v y : vphi v = Some y -> vphi (vmulq c v) = Some (phi c * y).
Proof. by case: v => //= q [<-]; rewrite phiM. Qed.

Lemma vphi_sub u v y z :
  vphi u = Some y -> vphi v = Some z -> vphi (vsub u v) = Some (y - z).
Proof. by case: u => //= p [<-]; case: v => //= q [<-]; rewrite phiB. Qed.

Lemma vphi_divq v c y :
  phi c != 0 -> vphi v = Some y -> vphi (vdivq v c) = Some (y / phi c).
Proof.
rewrite /vdivq qc_is_zeroE => /negbTE->.
by case: v => //= q [<-]; rewrite phi_div.
Qed.

(* The code's arrangements of the Leibniz rule for  s *: (P * ('X - r)):  y, z stand for two
   consecutive derivatives of P at a. *)
Lemma flip0 (r a y : rat) : - ((r - a) * y) = y * (a - r).
Proof. by rewrite -mulNr opprB mulrC. Qed.

Lemma flipk (r a y z : rat) k : k%:R * y - (r - a) * z = y *+ k + z * (a - r).
Proof. by rewrite mulr_natl flip0. Qed.

Lemma negV (xi xj : rat) : (xj - xi)^-1 = - (xi - xj)^-1.
Proof. by rewrite -invrN opprB. Qed.

Lemma alg_old0 (xi xj a y : rat) : (xi - a) * y / (xi - xj) = (xj - xi)^-1 * (y * (a - xi)).
Proof. by rewrite -flip0 (negV xi xj) mulrNN mulrC. Qed.

Lemma alg_oldk (xi xj a y z : rat) k :
  ((xi - a) * z - k%:R * y) / (xi - xj) = (xj - xi)^-1 * (y *+ k + z * (a - xi)).
Proof. by rewrite -flipk -(opprB ((xi - a) * z)) mulrN (negV xi xj) mulNr opprK mulrC. Qed.

Lemma alg_new0 (c1 c2 r a y : rat) : -1 * (c1 * ((r - a) * y) / c2) = c1 / c2 * (y * (a - r)).
Proof. by rewrite -flip0 mulN1r mulrN [c1 * _ / _]mulrAC. Qed.

Lemma alg_newk (c1 c2 r a y z : rat) k :
  c1 * (k%:R * y - (r - a) * z) / c2 = c1 / c2 * (y *+ k + z * (a - r)).
Proof. by rewrite flipk mulrAC. Qed.

Section Inv.
Variable grid : list Qc.
Variable a : Qc.
Variable md : nat.
Let n := length grid.
Hypothesis Hnd : NoDup grid.

Let x (l : nat) : rat := phi (gpt grid l).
Let a' : rat := phi a.

Lemma x_inj i j : (i < n)%N -> (j < n)%N -> x i = x j -> i = j.
Proof using Hnd.
move=> /ltP lt_i /ltP lt_j /phi_inj E.
by move/NoDup_nth: Hnd; apply; eauto.
Qed.

(* the column [c] holds the derivatives at the centre of [P], up to order md *)
Definition col_is (c : nat -> FdiffModel.val) (P : {poly rat}) : Prop :=
  forall k, (k <= md)%N -> vphi (c k) = Some (P^`(k).[a']).

(* Both updates of the code are this: if [g0], [g] compute (in whatever arrangement of the
   operations) the derivatives of  s *: (P * ('X - r))  from those of P by the Leibniz rule,
   the column operation turns the column of P into the column of that product.  Above
   mn = min i md the entries stay: there both polynomials have zero derivatives. *)
Lemma colop_col g0 g (s r : rat) i c c' P P' :
  (forall v y, vphi v = Some y -> vphi (g0 v) = Some (s * (y * (a' - r)))) ->
  (forall k u v y z, vphi u = Some y -> vphi v = Some z ->
     vphi (g k.+1 u v) = Some (s * (y *+ k.+1 + z * (a' - r)))) ->
  col_is c P -> (size P <= i)%N -> col_is c' P' -> (size P' <= i)%N ->
  col_is (colop g0 g (Nat.min i md) c c') (s *: (P * ('X - r%:P))).
Proof.
move=> H0 Hk HP szP HP' szP' [|k] lek; rewrite /colop.
  by rewrite (H0 _ _ (HP 0%N isT)) derivn0 hornerZ horner_mul_lin.
case: Nat.leb_spec => Hmn.
  by rewrite (Hk _ _ _ _ _ (HP k (ltnW lek)) (HP k.+1 lek)) derivnZ hornerZ derivn_mul_lin.
have lt_ik : (i < k.+1)%N by case/Nat.min_lt_iff: Hmn => /ltP //; rewrite ltnNge lek.
rewrite (HP' _ lek) !derivn_poly0 ?horner0 ?(leq_trans szP' (ltnW lt_ik)) //.
apply: leq_trans (size_scale_leq _ _) _; apply: leq_trans (size_mul_leq _ _) _.
by rewrite size_XsubC addn2 /= ltnS (leq_trans szP).
Qed.

Lemma old0_spec c4 c3 (xi xj : rat) v y :
  phi c4 = xi - a' -> phi c3 = xi - xj -> xi != xj -> vphi v = Some y ->
  vphi (old0 c4 c3 v) = Some ((xj - xi)^-1 * (y * (a' - xi))).
Proof.
move=> E4 E3 ne Hv; rewrite /old0 (vphi_divq _ (vphi_mulq c4 Hv)) E3 ?subr_eq0 // E4.
by rewrite alg_old0.
Qed.

Lemma oldk_spec c4 c3 (xi xj : rat) k u v y z :
  phi c4 = xi - a' -> phi c3 = xi - xj -> xi != xj -> vphi u = Some y -> vphi v = Some z ->
  vphi (oldk c4 c3 k u v) = Some ((xj - xi)^-1 * (y *+ k + z * (a' - xi))).
Proof.
move=> E4 E3 ne Hu Hv.
rewrite /oldk (vphi_divq _ (vphi_sub (vphi_mulq c4 Hv) (vphi_mulq _ Hu))) E3 ?subr_eq0 // E4 phi_nat.
by rewrite alg_oldk.
Qed.

Lemma new0_spec c1 c5 c2 (r : rat) v y :
  phi c5 = r - a' -> phi c2 != 0 -> vphi v = Some y ->
  vphi (new0 c1 c5 c2 v) = Some (phi c1 / phi c2 * (y * (a' - r))).
Proof.
move=> E5 ne Hv.
rewrite /new0 (vphi_mulq _ (vphi_divq ne (vphi_mulq c1 (vphi_mulq c5 Hv)))) E5 phim1.
by rewrite alg_new0.
Qed.

Lemma newk_spec c1 c5 c2 (r : rat) k u v y z :
  phi c5 = r - a' -> phi c2 != 0 -> vphi u = Some y -> vphi v = Some z ->
  vphi (newk c1 c5 c2 k u v) = Some (phi c1 / phi c2 * (y *+ k + z * (a' - r))).
Proof.
move=> E5 ne Hu Hv.
rewrite /newk (vphi_divq ne (vphi_mulq c1 (vphi_sub (vphi_mulq _ Hu) (vphi_mulq c5 Hv)))) E5 phi_nat.
by rewrite alg_newk.
Qed.

(* invariant of the j loop of stage i, before iteration t *)
Definition Jinv (i t : nat) (st : Qc * mat) : Prop :=
  [/\ phi st.1 = \prod_(0 <= l < t) (x i - x l),
      forall j, (j < t)%N -> col_is (st.2 j) (L x i j),
      forall j, (t <= j < i)%N -> col_is (st.2 j) (L x i.-1 j),
      col_is (st.2 i) (if t == i then L x i i else 0)
    & forall j, (i < j)%N -> col_is (st.2 j) 0].

Lemma jstep_inv i t c1 c4 c5 st :
  (0 < i)%N -> (i < n)%N -> (t < i)%N ->
  phi c1 = dn x i.-1 -> phi c4 = x i - a' -> phi c5 = x i.-1 - a' ->
  Jinv i t st -> Jinv i t.+1 (jstepF grid i t (Nat.min i md) c1 c4 c5 st).
Proof.
case: i => // i _ lt_in lt_ti E1 E4 E5; case: st => c2 F; rewrite /Jinv; cbn [fst snd Nat.pred] => -[Ec2 Hlt Hge Hi Hgt].
rewrite /jstepF.
set c3 := Qcminus _ _; set c2' := Qcmult _ _.
have E3 : phi c3 = x i.+1 - x t by rewrite /c3 phiB.
have ne3 : x i.+1 != x t.
  by apply/eqP => /(x_inj lt_in (ltn_trans lt_ti lt_in)) E; rewrite E ltnn in lt_ti.
have Ec2' : phi c2' = \prod_(0 <= l < t.+1) (x i.+1 - x l).
  by rewrite big_nat_recr //= /c2' phiM Ec2 E3.
have -> : (i.+1 - 1)%coq_nat = i := Nat.sub_0_r i.
set F1 := (if Nat.eqb t i then _ else _).
have F1_other j : j != i.+1 -> F1 j = F j.
  by rewrite /F1; case: Nat.eqb_spec => // _; apply: setcol_neqb.
have Ft : F1 t = F t by rewrite F1_other ?(ltn_eqF lt_ti).
(* column t takes the factor of the new point ([L_recr]); at t = i column i+1 is first made from
   column i ([L_new]); every other column is left alone *)
split; cbn [fst snd].
- exact: Ec2'.
- move=> j; rewrite ltnS leq_eqVlt => /orP[/eqP->|lt_jt]; last first.
    by rewrite setcol_neqb ?F1_other ?(ltn_eqF lt_jt) ?(ltn_eqF (ltn_trans lt_jt lt_ti)) //; apply: Hlt.
  rewrite setcol_eq Ft (L_recr x (ltnSE lt_ti)).
  have HP : col_is (F t) (L x i t) by apply: Hge; rewrite leqnn.
  apply: (colop_col _ _ HP (size_L _ (ltnSE lt_ti)) HP (size_L _ (ltnSE lt_ti))).
  + by move=> v y; apply: old0_spec.
  + by move=> k u v y z; apply: oldk_spec.
- move=> j /andP[lt_tj lt_ji].
  by rewrite setcol_neqb ?F1_other ?(gtn_eqF lt_tj) ?(ltn_eqF lt_ji) //; apply: Hge; rewrite (ltnW lt_tj).
- rewrite setcol_neqb ?(gtn_eqF lt_ti) //.
  rewrite /F1; case: Nat.eqb_spec => [Eti|Nti]; last first.
    by move: Hi; rewrite (ltn_eqF lt_ti) eqSS; have /eqP/negbTE-> := Nti.
  move: Hi Ec2'; rewrite Eti eqxx ltn_eqF // setcol_eq => Hi Ed.
  have d0 : dn x i != 0 by apply: (@dn_neq0 _ x n x_inj); apply: ltnW.
  have nd : phi c2' != 0 by rewrite Ed; apply: (@dn_neq0 _ x n x_inj).
  have HP : col_is (F i) (L x i i) by apply: Hge; rewrite Eti leqnn ltnSn.
  rewrite (L_new d0) -[dn x i.+1]Ed -E1.
  apply: (colop_col _ _ HP (size_L _ (leqnn i)) Hi); last by rewrite size_poly0.
  + by move=> v y; apply: new0_spec.
  + by move=> k u v y z; apply: newk_spec.
- move=> j lt_ij.
  by rewrite setcol_neqb ?F1_other ?(gtn_eqF lt_ij) ?(gtn_eqF (ltn_trans lt_ti lt_ij)) //; apply: Hgt.
Qed.

Lemma jloop_inv cnt : forall i t c1 c4 c5 st,
  (0 < i)%N -> (i < n)%N -> (t + cnt = i)%N ->
  phi c1 = dn x i.-1 -> phi c4 = x i - a' -> phi c5 = x i.-1 - a' ->
  Jinv i t st -> Jinv i i (jloopF grid cnt i t (Nat.min i md) c1 c4 c5 st).
Proof.
elim: cnt => [|cnt IH] i t c1 c4 c5 st i0 lt_in Et E1 E4 E5 HJ.
  by move: HJ; rewrite addn0 in Et; rewrite Et.
rewrite [jloopF _ _ _ _ _ _ _ _ _]/=; apply: IH => //; first by rewrite addSnnS.
by apply: jstep_inv => //; rewrite -Et -addSnnS leq_addr.
Qed.

(* invariant of the outer loop, before stage i *)
Definition Iinv (i : nat) (st : Qc * Qc * mat) : Prop :=
  [/\ phi st.1.1 = dn x i.-1,
      phi st.1.2 = x i.-1 - a',
      forall j, (j < i)%N -> col_is (st.2 j) (L x i.-1 j)
    & forall j, (i <= j)%N -> col_is (st.2 j) 0].

Lemma istep_inv i st :
  (0 < i)%N -> (i < n)%N -> Iinv i st -> Iinv i.+1 (istepF grid a md i st).
Proof.
move=> i0 lt_in; case: st => [[c1 c4] F]; rewrite /Iinv; cbn [fst snd] => -[E1 E4 Hlt Hge].
rewrite /istepF.
set c4' := Qcminus _ _.
have E4' : phi c4' = x i - a' by rewrite /c4' phiB.
have J0 : Jinv i 0 (qc1, F).
  split; cbn [fst snd].
  - by rewrite phi1 big_geq.
  - by [].
  - by move=> j /andP[_ lt_ji]; apply: Hlt.
  - by rewrite (ltn_eqF i0); apply: Hge.
  - by move=> j lt_ij; apply: Hge; apply: ltnW.
have := @jloop_inv i i 0%N c1 c4' c4 (qc1, F) i0 lt_in (add0n i) E1 E4' E4 J0.
case: (jloopF _ _ _ _ _ _ _ _ _) => c2 F' [].
cbn [fst snd Nat.pred]; rewrite eqxx => Ec2 Hlt' _ Hi' Hgt'.
split; cbn [fst snd Nat.pred] => //.
move=> j; rewrite ltnS leq_eqVlt => /orP[/eqP->|] //.
exact: Hlt'.
Qed.

Lemma iloop_inv cnt : forall i st,
  (0 < i)%N -> (i + cnt <= n)%N -> Iinv i st -> Iinv (i + cnt) (iloopF grid a md cnt i st).
Proof.
elim: cnt => [|cnt IH] i st i0 Ei HI; first by rewrite addn0.
rewrite [iloopF _ _ _ _ _ _]/= -addSnnS; apply: IH => //; first by rewrite addSnnS.
by apply: istep_inv => //; apply: leq_trans Ei; rewrite -addSnnS leq_addr.
Qed.

Lemma init_inv : Iinv 1 (initF grid a).
Proof.
rewrite /initF; split; cbn [fst snd Nat.pred].
- by rewrite phi1 /dn big_geq.
- by rewrite phiB.
- move=> j; rewrite ltnS leqn0 => /eqP-> k lek.
  have -> : L x 0%N 0%N = 1 by rewrite /L big_mkcond big_nat1 eqxx.
  rewrite /F0 -(polyC1) derivnC; case: k lek => [|k] _ /=; first by rewrite phi1 hornerC.
  by rewrite phi0 horner0.
- by move=> [|j] // _ k lek; rewrite /F0 /= phi0 linear0 horner0.
Qed.

(* after [stages] rounds the columns 0..stages hold the derivatives at the centre of the
   Lagrange basis polynomials of the first stages+1 points; the other columns are zero *)
Theorem stages_lagrange stages : (stages < n)%N ->
  let st := iloopF grid a md stages 1 (initF grid a) in
  [/\ phi st.1.2 = x stages - a',
      forall j k, (j <= stages)%N -> (k <= md)%N ->
        vphi (st.2 j k) = Some ((L x stages j)^`(k).[a'])
    & forall j k, (stages < j)%N -> (k <= md)%N -> vphi (st.2 j k) = Some 0].
Proof using Hnd.
move=> lt_s /=.
have [|_ E4 H1 H2] := @iloop_inv stages 1%N (initF grid a) isT _ init_inv.
  by rewrite add1n.
rewrite add1n /= in E4 H1 H2; split=> //.
- by move=> j k le_j le_k; apply: H1.
- by move=> j k lt_j le_k; rewrite (H2 j lt_j k le_k) linear0 horner0.
Qed.

End Inv.

Definition polyQ (p : list Qc) : {poly rat} := Poly (map phi p).

Lemma phi_peval p y : phi (peval p y) = (polyQ p).[phi y].
Proof.
rewrite /polyQ; elim: p => [|c r IH] /=; first by rewrite phi0 horner0.
by rewrite horner_cons phiD phiM IH addrC mulrC.
Qed.

Lemma nth_pderiv_from m r i :
  nth 0 (map phi (pderiv_from m r)) i = nth 0 (map phi r) i *+ (m + i).
Proof.
elim: r m i => [|c r IH] m [|i] //=; rewrite ?nth_nil ?mul0rn //.
- by rewrite phiM phi_nat addn0 mulr_natl.
- by rewrite IH addSnnS.
Qed.

Lemma polyQ_pderiv p : polyQ (pderiv p) = (polyQ p)^`().
Proof.
apply/polyP => i; rewrite coef_deriv /polyQ !coef_Poly /pderiv nth_pderiv_from add1n.
by case: p => [|c r] //=; rewrite nth_nil.
Qed.

Lemma polyQ_pderivn k p : polyQ (pderivn k p) = (polyQ p)^`(k).
Proof. by elim: k => [|k IH] //; rewrite derivnS -IH -polyQ_pderiv. Qed.

Lemma size_polyQ p : (size (polyQ p) <= length p)%N.
Proof. by rewrite /polyQ (leq_trans (size_Poly _)) // size_map. Qed.

Lemma phi_sumQc f m : phi (sumQc f m) = \sum_(0 <= j < m) phi (f j).
Proof.
elim: m => [|m IH] /=; first by rewrite big_geq // phi0.
by rewrite big_nat_recr //= phiD IH.
Qed.

Lemma polyQ_cons c p : polyQ (c :: p) = polyQ p * 'X + (phi c)%:P.
Proof. by rewrite /polyQ /= cons_poly_def. Qed.

Lemma polyQ_nil : polyQ [::] = 0.
Proof. by []. Qed.

Lemma polyQ_padd p q : polyQ (padd p q) = polyQ p + polyQ q.
Proof.
elim: p q => [|a p IH] [|b q]; rewrite ?polyQ_nil ?add0r ?addr0 //.
rewrite [padd _ _]/= !polyQ_cons IH phiD polyCD mulrDl.
by rewrite addrACA.
Qed.

Lemma polyQ_pscale c p : polyQ (pscale c p) = phi c *: polyQ p.
Proof.
elim: p => [|a p IH]; first by rewrite /= polyQ_nil scaler0.
by rewrite [pscale _ _]/= !polyQ_cons IH phiM scalerDr -scalerAl polyCM mul_polyC.
Qed.

Lemma polyQ_pmul_lin p r : polyQ (pmul_lin p r) = polyQ p * ('X - (phi r)%:P).
Proof.
rewrite /pmul_lin polyQ_padd polyQ_cons polyQ_pscale phi0 addr0 phiN.
by rewrite mulrBr scaleNr -mul_polyC [_%:P * _]mulrC.
Qed.

Lemma polyQ_lagrange_from rest l j xj :
  polyQ (lagrange_from rest l j xj) =
  \prod_(0 <= t < length rest | (l + t)%N != j)
     ((phi xj - phi (List.nth t rest (Q2Qc 0)))^-1 *: ('X - (phi (List.nth t rest (Q2Qc 0)))%:P)).
Proof.
elim: rest l => [|y r IH] l.
  by rewrite big_geq //= polyQ_cons polyQ_nil mul0r add0r phi1 .
rewrite [length _]/= big_mkcond big_nat_recl // -big_mkcond /= addn0.
rewrite [lagrange_from _ _ _ _]/=.
have E : \prod_(0 <= i < length r | (l + i.+1)%N != j)
           ((phi xj - phi (List.nth i r (Q2Qc 0)))^-1 *: ('X - (phi (List.nth i r (Q2Qc 0)))%:P))
         = polyQ (lagrange_from r l.+1 j xj).
  by rewrite IH; apply: eq_bigl => t; rewrite addSnnS.
rewrite E; case: Nat.eqb_spec => [->|/eqP ne]; first by rewrite eqxx mul1r.
rewrite (negbTE ne) /= polyQ_pscale polyQ_pmul_lin phiV phiB.
by rewrite -scalerAl mulrC.
Qed.

Lemma nth_firstn_lt (A : Type) (d : A) m : forall (l : list A) t,
  (t < m)%coq_nat -> List.nth t (firstn m l) d = List.nth t l d.
Proof.
elim: m => [|m IH] l t H; first by lia.
case: l => [|y l] //=; case: t H => [|t] H //.
by apply: IH; lia.
Qed.

Lemma polyQ_lagrange grid i j :
  (i < length grid)%N -> (j <= i)%N ->
  polyQ (lagrange (firstn i.+1 grid) j) = L (fun l => phi (gpt grid l)) i j.
Proof.
move=> lt_i le_j; rewrite /lagrange polyQ_lagrange_from /L.
have -> : length (firstn i.+1 grid) = i.+1 by rewrite firstn_length_le //; apply/ltP.
rewrite big_nat_cond [RHS]big_nat_cond; apply: eq_big => [t|t /andP[/andP[_ lt_t] _]].
  by rewrite add0n.
rewrite !nth_firstn_lt //; first by apply/ltP.
by apply/ltP; rewrite ltnS.
Qed.

Lemma polyQ_lagrange_all grid j : (j < length grid)%N ->
  polyQ (lagrange grid j) = L (fun l => phi (gpt grid l)) (length grid).-1 j.
Proof.
move=> lt_j; have n0 : (0 < length grid)%N := leq_ltn_trans (leq0n j) lt_j.
by rewrite -polyQ_lagrange ?prednK ?firstn_all // -ltnS prednK.
Qed.

Lemma vphi_eq v q : vphi v = Some (phi q) -> v = VQ q.
Proof. by case: v => //= p [/phi_inj->]. Qed.

Theorem fornberg_invariant (grid : list Qc) (a : Qc) (max_deriv : N) (stages : nat) :
  NoDup grid -> guard_size (length grid) max_deriv = true ->
  (stages < length grid)%coq_nat ->
  exists c1 w,
    [/\ fdiff_stages stages grid max_deriv a
          = Ok (c1, Qcminus (List.nth stages grid (Q2Qc 0)) a, w),
        length w = (length grid * (N.to_nat max_deriv + 1))%coq_nat,
        forall j k : nat, (j <= stages)%coq_nat -> (k <= N.to_nat max_deriv)%coq_nat ->
          List.nth (j + k * length grid)%coq_nat w VNan
          = VQ (peval (pderivn k (lagrange (firstn stages.+1 grid) j)) a)
      & forall j k : nat, (stages < j)%coq_nat /\ (j < length grid)%coq_nat -> (k <= N.to_nat max_deriv)%coq_nat ->
          List.nth (j + k * length grid)%coq_nat w VNan = VQ (Q2Qc 0)].
Proof.
move=> Hnd G /ltP lt_s; have [n0 Hsz] := guard_sizeP _ _ G.
set md := N.to_nat max_deriv in Hsz *.
have [w [Ew Rw]] := fdiff_stages_refines grid a md n0 Hsz stages (elimT ltP lt_s).
rewrite N2Nat.id in Ew.
have [E4 H1 H2] := @stages_lagrange grid a md Hnd stages lt_s.
move: Ew Rw E4 H1 H2; case: (iloopF _ _ _ _ _ _) => [[c1 c4] F]; cbn [fst snd] => Ew Rw E4 H1 H2.
exists c1, w; split.
- rewrite Ew; congr (Ok (_, _, _)); apply: phi_inj.
  by rewrite E4 phiB.
- by case: Rw.
- move=> j k le_j le_k.
  have lt_j : (j < length grid)%coq_nat by move/ltP: lt_s => ?; lia.
  rewrite (repr_nth grid md w _ j k VNan Rw lt_j le_k); apply: vphi_eq.
  rewrite (H1 j k (introT leP le_j) (introT leP le_k)).
  by rewrite phi_peval polyQ_pderivn polyQ_lagrange //; apply/leP.
- move=> j k [lt_sj lt_j] le_k.
  rewrite (repr_nth grid md w _ j k VNan Rw lt_j le_k); apply: vphi_eq.
  by rewrite (H2 j k (introT ltP lt_sj) (introT leP le_k)) phi0.
Qed.

(* The whole result in closed form: the invariant after the last round.  Entry j + k*len_g is the
   k-th derivative at the centre of the Lagrange basis polynomial of node j on the full grid. *)
Theorem fdiff_lagrange (grid : list Qc) (a : Qc) (max_deriv : N) :
  NoDup grid -> guard_size (length grid) max_deriv = true ->
  exists w,
    [/\ fdiff grid max_deriv a = Ok w,
        length w = (length grid * (N.to_nat max_deriv + 1))%coq_nat
      & forall j k : nat, (j < length grid)%coq_nat -> (k <= N.to_nat max_deriv)%coq_nat ->
          List.nth (j + k * length grid)%coq_nat w VNan
          = VQ (peval (pderivn k (lagrange grid j)) a)].
Proof.
move=> Hnd G; have [n0 Hsz] := guard_sizeP _ _ G.
have lt_s : (length grid - 1 < length grid)%coq_nat by lia.
have [c1 [w [Ew Lw Hw _]]] := fornberg_invariant a Hnd G lt_s.
exists w; split=> // [|j k lt_j le_k].
  by rewrite fdiff_stages_last ?Ew //; apply: n_lt Hsz.
rewrite Hw //; last by lia.
have -> : (length grid - 1)%coq_nat.+1 = length grid by lia.
by rewrite firstn_all.
Qed.

Theorem fornberg_closed_form (grid : list Qc) (a : Qc) (max_deriv : N) :
  NoDup grid -> guard_size (length grid) max_deriv = true ->
  exists w,
    fdiff grid max_deriv a = Ok w /\
    forall j k : nat, (j < length grid)%coq_nat -> (k <= N.to_nat max_deriv)%coq_nat ->
      List.nth (j + k * length grid)%coq_nat w VNan
      = VQ (peval (pderivn k (lagrange grid j)) a).
Proof. by move=> Hnd G; have [w [Ew _ Hw]] := fdiff_lagrange a Hnd G; exists w. Qed.

Theorem fornberg_exact (grid : list Qc) (a : Qc) (max_deriv : N) :
  NoDup grid -> guard_size (length grid) max_deriv = true ->
  exists w,
    [/\ fdiff grid max_deriv a = Ok w,
        length w = (length grid * (N.to_nat max_deriv + 1))%coq_nat,
        forallb is_rational w = true
      & forall k p, (k <= N.to_nat max_deriv)%coq_nat -> (length p <= length grid)%coq_nat ->
                    apply_weights w grid k p = peval (pderivn k p) a].
Proof.
move=> Hnd G; have [w [Ew Lw Hw]] := fdiff_lagrange a Hnd G.
have [n0 _] := guard_sizeP _ _ G.
exists w; split=> // [|k p le_k le_p].
  apply/forallb_forall/Forall_forall; apply: (@flat_all _ _ VNan _ _ _ n0 Lw) => j k lt_j lt_k.
  by rewrite Hw //; lia.
apply: phi_inj; rewrite /apply_weights phi_sumQc phi_peval polyQ_pderivn.
move/ltP: n0 => n0.
have lt_m : ((length grid).-1 < length grid)%N by rewrite prednK.
have sz_p : (size (polyQ p) <= (length grid).-1.+1)%N.
  by rewrite prednK //; apply: leq_trans (size_polyQ p) _; apply/leP.
rewrite -(exactness (phi a) (x_inj Hnd) k lt_m sz_p) prednK //.
apply: eq_big_nat => j /andP[_ lt_j].
rewrite phiM phi_peval /wq Hw //; last exact/ltP.
by rewrite phi_peval polyQ_pderivn polyQ_lagrange_all.
Qed.

Lemma sumQc_ext f g m : (forall j, f j = g j) -> sumQc f m = sumQc g m.
Proof. by move=> E; elim: m => [|m IH] //=; rewrite IH E. Qed.

(* partition of unity: the order-0 weights sum to 1, the higher-order weights to 0 *)
Corollary partition_of_unity (grid : list Qc) (a : Qc) (max_deriv : N) :
  NoDup grid -> guard_size (length grid) max_deriv = true ->
  exists w, fdiff grid max_deriv a = Ok w /\
    forall k, (k <= N.to_nat max_deriv)%coq_nat ->
      sumQc (fun j => wq w (j + k * length grid)) (length grid)
      = if Nat.eqb k 0 then Q2Qc 1 else Q2Qc 0.
Proof.
move=> Hnd G; have [w [Ew _ _ H]] := fornberg_exact a Hnd G.
have [n0 _] := guard_sizeP _ _ G.
exists w; split=> // k le_k.
have := H k [:: Q2Qc 1] le_k n0.
rewrite /apply_weights => E.
have -> : sumQc (fun j => wq w (j + k * length grid)) (length grid)
        = sumQc (fun j => Qcmult (wq w (j + k * length grid)) (peval [:: Q2Qc 1] (List.nth j grid (Q2Qc 0)))) (length grid).
  apply: sumQc_ext => j.
  by apply: phi_inj; rewrite phiM phiD phiM !phi0 phi1 mulr0 addr0 mulr1.
rewrite E; apply: phi_inj; rewrite phi_peval polyQ_pderivn /polyQ /= phi1.
rewrite cons_poly_def mul0r add0r derivnC.
by case: k {le_k H E} => [|k] /=; rewrite ?hornerC ?horner0 ?phi1 ?phi0.
Qed.
