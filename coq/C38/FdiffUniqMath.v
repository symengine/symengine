(* C38 -- uniqueness of the weights (MathComp layer). *)
From SE Require Import C38.FdiffSpec C38.FdiffRefine C38.FdiffMath C38.FdiffUniq.
From mathcomp Require Import ssreflect ssrfun ssrbool eqtype ssrnat seq fintype bigop ssralg poly rat.
Close Scope Q_scope. Close Scope Qc_scope. Close Scope N_scope. Close Scope Z_scope.
Set Implicit Arguments.
Unset Strict Implicit.
Unset Printing Implicit Defensive.
Import GRing.Theory.
Local Open Scope ring_scope.

Theorem fornberg_unique (grid : list Qc) (a : Qc) (max_deriv : N) :
  NoDup grid -> guard_size (length grid) max_deriv = true ->
  exists w,
    fdiff grid max_deriv a = Ok w /\
    forall (k : nat) (v : nat -> Qc), (k <= N.to_nat max_deriv)%coq_nat ->
      (forall p : list Qc, (length p <= length grid)%coq_nat ->
         sumQc (fun j => Qcmult (v j) (peval p (List.nth j grid (Q2Qc 0)))) (length grid)
         = peval (pderivn k p) a) ->
      forall j : nat, (j < length grid)%coq_nat -> v j = wq w (j + k * length grid)%coq_nat.
Proof.
move=> Hnd G; have [w [Ew Hw]] := fornberg_closed_form a Hnd G.
exists w; split=> // k v le_k Hv j lt_j.
rewrite /wq (Hw j k lt_j le_k).
have len_p : (length (lagrange grid j) <= length grid)%coq_nat by rewrite length_lagrange.
rewrite -(Hv _ len_p); apply: phi_inj; rewrite phi_sumQc.
move/ltP: lt_j => lt_j.
have lt_m : ((length grid).-1 < length grid)%N by rewrite prednK // (leq_ltn_trans _ lt_j).
have le_jm : (j <= (length grid).-1)%N by rewrite -ltnS prednK // (leq_ltn_trans _ lt_j).
(* v_i * L_j(x_i) = v_i * [i = j] *)
rewrite (@eq_big_nat _ _ _ _ _ _ (fun i => phi (v i) * (i == j)%:R)); last first.
  move=> i /andP[_ lt_i]; rewrite phiM phi_peval polyQ_lagrange_all //; congr (_ * _).
  have le_im : (i <= (length grid).-1)%N by rewrite -ltnS prednK // (leq_ltn_trans _ lt_j).
  exact: (L_node (x_inj Hnd) lt_m le_jm le_im).
rewrite big_mkord (bigD1 (Ordinal lt_j)) //= eqxx mulr1 big1 ?addr0 // => i ne.
have -> : (nat_of_ord i == j) = false by apply/negbTE; move: ne; rewrite -val_eqE.
by rewrite mulr0.
Qed.
