(* C38 obligation: for every non-empty grid of DISTINCT rational points whose index space
   fits in 32 bits, every centre and every maximum order, generate_fdiff_weights_vector
   stays inside its arrays, returns len_g*(max_deriv+1) rational weights, and the order-k
   weights applied to the samples of ANY polynomial p of degree below the grid size
   (coefficient list no longer than the grid) give exactly the k-th derivative of p at the
   centre.  [apply_weights w grid k p] = sum_j w[j + k*len_g] * p(grid_j). *)
From SE Require Import C38.FdiffSpec.
From SE Require C38.FdiffMath.
Theorem C38_fornberg_exact :
  forall (grid : list Qc) (around : Qc) (max_deriv : N),
    NoDup grid -> guard_size (length grid) max_deriv = true ->
    exists w : list FdiffModel.val,
      fdiff grid max_deriv around = Ok w /\
      length w = Nat.mul (length grid) (Nat.add (N.to_nat max_deriv) 1) /\
      forallb is_rational w = true /\
      forall (k : nat) (p : list Qc),
        le k (N.to_nat max_deriv) -> le (length p) (length grid) ->
        apply_weights w grid k p = peval (pderivn k p) around.
Proof.
  intros grid around max_deriv Hnd G.
  destruct (@FdiffMath.fornberg_exact grid around max_deriv Hnd G) as [w [H1 H2 H3 H4]].
  exists w. auto.
Qed.
Print Assumptions C38_fornberg_exact.
