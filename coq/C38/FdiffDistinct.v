(* C38 -- the boolean distinctness guard of the model decides [NoDup]. *)
From SE Require Import C38.FdiffModel.

Lemma qc_eqb_eq x y : qc_eqb x y = true <-> x = y.
Proof.
  unfold qc_eqb. split.
  - intros H. apply andb_prop in H. destruct H as [H1 H2].
    apply Z.eqb_eq in H1. apply Pos.eqb_eq in H2.
    apply Qc_is_canon. unfold Qeq. rewrite H1, H2. reflexivity.
  - intros ->. rewrite Z.eqb_refl, Pos.eqb_refl. reflexivity.
Qed.

Lemma qc_mem_In x l : qc_mem x l = true <-> In x l.
Proof.
  induction l as [|y l IH]; simpl.
  - split; [discriminate | tauto].
  - destruct (qc_eqb x y) eqn:E.
    + apply qc_eqb_eq in E. subst. tauto.
    + rewrite IH. split; auto. intros [H|H]; auto.
      subst. assert (qc_eqb x x = true) by (apply qc_eqb_eq; auto). congruence.
Qed.

Lemma qc_distinct_NoDup l : qc_distinct l = true <-> NoDup l.
Proof.
  induction l as [|x l IH]; simpl.
  - split; auto. constructor.
  - rewrite andb_true_iff, negb_true_iff, IH, <- not_true_iff_false, qc_mem_In.
    split; [intros []; constructor; auto | intros H; inversion H; auto].
Qed.
