(* C38 -- the coefficient list of a Lagrange basis polynomial is as long as the grid (so that the
   exactness hypothesis of the uniqueness theorem can be instantiated with it). *)
From SE Require Import C38.FdiffSpec.
From Coq Require Import Lia.
Local Open Scope nat_scope.

Lemma length_padd p q : length (padd p q) = Nat.max (length p) (length q).
Proof.
  revert q; induction p as [|a p IH]; intros [|b q]; cbn [padd length]; try reflexivity.
  rewrite IH; reflexivity.
Qed.

Lemma length_pmul_lin p r : length (pmul_lin p r) = S (length p).
Proof. unfold pmul_lin, pscale. rewrite length_padd; cbn [length]; rewrite map_length; lia. Qed.

(* one linear factor per point, none left out when the points are numbered past j *)
Lemma length_lagrange_past pts : forall l j xj,
  j < l -> length (lagrange_from pts l j xj) = S (length pts).
Proof.
  induction pts as [|x rest IH]; intros l j xj H; cbn [lagrange_from length]; [reflexivity|].
  destruct (Nat.eqb_spec l j); [lia|].
  unfold pscale. rewrite map_length, length_pmul_lin, IH by lia. reflexivity.
Qed.

Lemma length_lagrange_from pts : forall l j xj,
  l <= j < l + length pts -> length (lagrange_from pts l j xj) = length pts.
Proof.
  induction pts as [|x rest IH]; intros l j xj H; cbn [lagrange_from length] in *; [lia|].
  destruct (Nat.eqb_spec l j); [apply length_lagrange_past; lia|].
  unfold pscale. rewrite map_length, length_pmul_lin, IH by lia. reflexivity.
Qed.

Lemma length_lagrange (grid : list Qc) (j : nat) : lt j (length grid) -> length (lagrange grid j) = length grid.
Proof. intros Hj. apply length_lagrange_from. lia. Qed.
