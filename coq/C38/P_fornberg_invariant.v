(* C38 obligation (the loop invariant of the Fornberg recurrence): after the initialisation and
   [stages] rounds of the outer loop, for every j <= stages the entries weights[j + k*len_g],
   k <= max_deriv, are the k-th derivatives at the centre of the Lagrange basis polynomial of
   node j among the first stages+1 grid points ([lagrange] builds that polynomial as a
   coefficient list), the columns of the points not yet reached are zero, and
   c4 = grid[stages] - around. *)
From SE Require Import C38.FdiffSpec.
From SE Require C38.FdiffMath.
Theorem C38_fornberg_invariant :
  forall (grid : list Qc) (around : Qc) (max_deriv : N) (stages : nat),
    NoDup grid -> guard_size (length grid) max_deriv = true ->
    lt stages (length grid) ->
    exists (c1 : Qc) (w : list FdiffModel.val),
      fdiff_stages stages grid max_deriv around
        = Ok (c1, Qcminus (nth stages grid (Q2Qc 0)) around, w) /\
      length w = Nat.mul (length grid) (Nat.add (N.to_nat max_deriv) 1) /\
      (forall j k : nat, le j stages -> le k (N.to_nat max_deriv) ->
         nth (Nat.add j (Nat.mul k (length grid))) w VNan
         = VQ (peval (pderivn k (lagrange (firstn (S stages) grid) j)) around)) /\
      (forall j k : nat, lt stages j /\ lt j (length grid) -> le k (N.to_nat max_deriv) ->
         nth (Nat.add j (Nat.mul k (length grid))) w VNan = VQ (Q2Qc 0)).
Proof.
  intros grid around max_deriv stages Hnd G Hs.
  destruct (@FdiffMath.fornberg_invariant grid around max_deriv stages Hnd G Hs) as [c1 [w [H1 H2 H3 H4]]].
  exists c1, w. auto.
Qed.
Print Assumptions C38_fornberg_invariant.
