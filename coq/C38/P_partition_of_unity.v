(* C38 obligation (corollary): the order-0 weights sum to 1, the weights of every order
   k >= 1 sum to 0. *)
From SE Require Import C38.FdiffSpec.
From SE Require C38.FdiffMath.
Theorem C38_partition_of_unity :
  forall (grid : list Qc) (around : Qc) (max_deriv : N),
    NoDup grid -> guard_size (length grid) max_deriv = true ->
    exists w : list FdiffModel.val,
      fdiff grid max_deriv around = Ok w /\
      forall k : nat, le k (N.to_nat max_deriv) ->
        sumQc (fun j => wq w (Nat.add j (Nat.mul k (length grid)))) (length grid)
        = if Nat.eqb k 0 then Q2Qc 1 else Q2Qc 0.
Proof. exact (@FdiffMath.partition_of_unity). Qed.
Print Assumptions C38_partition_of_unity.
