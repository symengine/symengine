(* C38 obligation (uniqueness): on a grid of DISTINCT rational points, the property's exactness
   condition determines the weights -- any candidate order-k weights v_0 .. v_{n-1} that give the
   exact k-th derivative at the centre for EVERY polynomial of degree below the grid size are
   the entries weights[j + k*len_g] returned by generate_fdiff_weights_vector.  Together with
   C38_fornberg_exact this says the function returns exactly THE finite-difference weights. *)
From SE Require Import C38.FdiffSpec.
From SE Require C38.FdiffUniqMath.
Theorem C38_fornberg_unique :
  forall (grid : list Qc) (around : Qc) (max_deriv : N),
    NoDup grid -> guard_size (length grid) max_deriv = true ->
    exists w : list FdiffModel.val,
      fdiff grid max_deriv around = Ok w /\
      forall (k : nat) (v : nat -> Qc), le k (N.to_nat max_deriv) ->
        (forall p : list Qc, le (length p) (length grid) ->
           sumQc (fun j => Qcmult (v j) (peval p (nth j grid (Q2Qc 0)))) (length grid)
           = peval (pderivn k p) around) ->
        forall j : nat, lt j (length grid) -> v j = wq w (Nat.add j (Nat.mul k (length grid))).
Proof. exact (@FdiffUniqMath.fornberg_unique). Qed.
Print Assumptions C38_fornberg_unique.
