(* C09 obligation: expand preserves the value.  For every expression e (any size, deep or shallow expansion) that
   the guarded run of the visitor accepts ([expand_guard]: e is well formed and every library call made while
   expanding it -- mul, pow, Mul::from_dict, Add::from_dict, Add::dict_add_term, the Number operations -- satisfies
   the boolean precondition of the theorem about that call), the model's expand(e) returns a well-formed value r,
   and r and e denote the same number of Q(i) under EVERY valuation of the symbols and constants.
   Covered by the guard: sums, products (mul_expand_two in all its shapes) and squares (square_expand) of sums with
   exact coefficients over symbols, constants, function applications and other atoms with positive integer
   exponents, nested to any depth.
   PARTIAL with respect to the design's `expand_sound`: the guard rejects negative powers of sums (Add::div) and
   powers n >= 3 of sums (pow_expand; the multinomial table is proved only on a finite universe, P_multinomial.v,
   and the multinomial theorem over the table is not done); there the tie is the correspondence and the driver's
   exact evaluation oracle. *)
From SE Require Import C09.ExpandGuardedOps C09.ExpandSound2 Num.NumSpec Expr.Denote.
Theorem C09_expand_sound_guarded :
  forall (deep : bool) (e : expr), expand_guard deep e = true ->
  exists r, expand deep e = Ok r /\ wf r = true /\
    forall rho rhoc : list N -> qi, qi_eq (denote rho rhoc r) (denote rho rhoc e).
Proof. exact expand_sound_guarded. Qed.
Print Assumptions C09_expand_sound_guarded.
