(* C09 -- value preservation of expand: when the guarded run of the visitor (C09/ExpandGuardedOps.v) returns
   a value, that value denotes, in Q(i) and under EVERY valuation of the symbols and constants, the same
   number as the input.  The proof runs the visitor against the contracts of the guarded library calls
   (C07: mul_sound, pow_int_sound; C03: mul_canonical, pow_int_canonical; Add::dict_add_term: datm_spec). *)
From SE Require Import C09.ExpandGuardedOps ExpSubs.QiRing Expr.DenotePow.
From Coq Require Import QArith Lia Setoid Morphisms.
Local Open Scope Z_scope.
Local Open Scope res_scope.

Lemma guard_ok : forall A b (r : res A) x, guard b r = Ok x -> b = true /\ r = Ok x.
Proof. intros A b r x H. unfold guard in H. destruct b; [split; [reflexivity | exact H] | discriminate H]. Qed.

Lemma bind_ok : forall A B (a : res A) (k : A -> res B) r, bind a k = Ok r -> exists x, a = Ok x /\ k x = Ok r.
Proof. intros A B a k r H. destruct a as [x| | |]; cbn in H; try discriminate H. exists x. split; [reflexivity | exact H]. Qed.

Lemma qval_one : qval (NInt 1) = qi_one.
Proof. reflexivity. Qed.
Lemma qval_zero : qval (NInt 0) = qi_zero.
Proof. reflexivity. Qed.

Lemma dinv_b_dinv : forall d, dinv_b d = true -> dinv d.
Proof.
  intros d H. unfold dinv_b in H. apply andb_prop in H. destruct H as [H N]. rewrite forallb_forall in H.
  split; [| |exact N].
  - intros p Hp. specialize (H p Hp). apply andb_prop in H. destruct H as [H _]. apply andb_prop in H. tauto.
  - intros p Hp. specialize (H p Hp). apply andb_prop in H. destruct H as [H Z]. apply andb_prop in H. destruct H as [_ X].
    split; [exact X|]. destruct (num_is_zero (snd p)); [discriminate Z | reflexivity].
Qed.

(* [r] returns a number of value [v] *)
Definition yields (r : res number) (v : qi) : Prop := forall x, r = Ok x -> qi_eq (qval x) v.

Lemma yields_eq : forall r v v', yields r v -> qi_eq v v' -> yields r v'.
Proof. intros r v v' H E x Hx. rewrite (H x Hx). exact E. Qed.
Lemma yields_bind : forall a k va v,
  yields a va -> (forall x, qi_eq (qval x) va -> yields (k x) v) -> yields (bind a k) v.
Proof. intros a k va v Ha Hk z H. apply bind_ok in H. destruct H as (x & Ex & H). exact (Hk x (Ha x Ex) z H). Qed.
Lemma yields_ret : forall x, yields (Ok x) (qval x).
Proof. intros x y [= <-]. reflexivity. Qed.

Lemma c_mulnum : forall x y, yields (g_mulnum x y) (qi_mul (qval x) (qval y)).
Proof.
  intros x y z H. apply guard_ok in H. destruct H as [G H]. apply andb_prop in G. destruct G as [Xx Xy].
  unfold mulnum_, eq_one in H.
  destruct (SE.Expr.Cmp.num_eqb x (NInt 1)) eqn:E1.
  - injection H as <-. rewrite (cmp_num_eqb_eq x (NInt 1) Xx (xok_int 1) E1), qval_one. ring.
  - destruct (SE.Expr.Cmp.num_eqb y (NInt 1)) eqn:E2.
    + injection H as <-. rewrite (cmp_num_eqb_eq y (NInt 1) Xy (xok_int 1) E2), qval_one. ring.
    + destruct (num_mul_x x y Xx Xy) as (r & Er & _ & Vr). rewrite Er in H. injection H as <-. exact Vr.
Qed.
Lemma c_nummul : forall x y, yields (g_nummul x y) (qi_mul (qval x) (qval y)).
Proof.
  intros x y z H. apply guard_ok in H. destruct H as [G H]. apply andb_prop in G. destruct G as [Xx Xy].
  destruct (num_mul_x x y Xx Xy) as (r & Er & _ & Vr). rewrite Er in H. injection H as <-. exact Vr.
Qed.
(* a product with a computed factor *)
Lemma c_mulnum_l : forall a y va, yields a va -> yields (do c <- a; g_mulnum c y) (qi_mul va (qval y)).
Proof.
  intros a y va H. eapply yields_bind; [exact H|]. intros c Vc. eapply yields_eq; [apply c_mulnum | rewrite Vc; reflexivity].
Qed.
Lemma c_mulnum_r : forall a y va, yields a va -> yields (do c <- a; g_mulnum y c) (qi_mul (qval y) va).
Proof.
  intros a y va H. eapply yields_bind; [exact H|]. intros c Vc. eapply yields_eq; [apply c_mulnum | rewrite Vc; reflexivity].
Qed.

Lemma c_addnum : forall x y z, g_addnum x y = Ok z ->
  xok y = true /\ xok z = true /\ qi_eq (qval z) (qi_add (qval x) (qval y)).
Proof.
  intros x y z H. apply guard_ok in H. destruct H as [G H]. apply andb_prop in G. destruct G as [Xx Xy].
  destruct (num_add_x x y Xx Xy) as (r & Er & Xr & Vr). rewrite Er in H. injection H as <-.
  exact (conj Xy (conj Xr Vr)).
Qed.

Section Sound.
  Variables rho rhoc : list N -> qi.
  Notation den := (denote rho rhoc).
  Notation wp := (wprod rho rhoc).
  Notation G := guarded_ops.

  Lemma pos_exp_inv : forall v, pos_exp v = true -> exists z, v = ENum (NInt z) /\ 0 < z.
  Proof.
    intros v H. destruct v as [[z| | | | | | ]| | | | | | | | | | | | | | | | | ]; try discriminate H.
    exists z. split; [reflexivity|]. cbn in H. apply Z.ltb_lt in H. exact H.
  Qed.

  (* positive integer exponents: every power of the product is defined *)
  Lemma pos_exp_dfn : forall d : mdict, forallb (fun p => pos_exp (snd p)) d = true -> ddfn rho rhoc d = true.
  Proof.
    intros d H. unfold ddfn. rewrite forallb_forall in *. intros p Hp.
    destruct (pos_exp_inv _ (H p Hp)) as (z & E & Z). rewrite E. cbn [pow_dfn].
    assert (0 <=? z = true) by (apply Z.leb_le; lia). rewrite H0. reflexivity.
  Qed.

  Lemma c_mul : forall a b r, g_mul a b = Ok r ->
    qi_eq (den r) (qi_mul (den a) (den b)) /\ wf r = true.
  Proof.
    intros a b r H. apply guard_ok in H. destruct H as [Gd H].
    apply andb_prop in Gd. destruct Gd as [Gd Pb]. apply andb_prop in Gd. destruct Gd as [Gd Pa].
    apply andb_prop in Gd. destruct Gd as [Oa Ob].
    unfold a_mul, api_run in H. cbn [api] in H.
    destruct (mul_sound rho rhoc _ a b r Oa Ob (pos_exp_dfn _ Pa) (pos_exp_dfn _ Pb) H) as [V _].
    destruct (mul_canonical _ a b r Oa Ob H) as (_ & _ & W). split; assumption.
  Qed.

  Lemma pos_terms_pow_dfn : forall a n, 0 < n -> pos_terms a = true -> pow_dfn_ok rho rhoc a n = true.
  Proof.
    intros a n N H. unfold pow_dfn_ok, ddfn, pow_entries. unfold pos_terms in H. rewrite forallb_forall in *.
    intros p Hp. apply in_map_iff in Hp. destruct Hp as (q & <- & Hq). cbn [fst snd].
    destruct (pos_exp_inv _ (H q Hq)) as (z & E & Z). rewrite E. change (xmul (num_of (ENum (NInt z))) (NInt n)) with (NInt (z * n)). cbn [pow_dfn].
    assert (0 <=? z * n = true) by (apply Z.leb_le; nia). rewrite H0. reflexivity.
  Qed.

  Lemma c_pow : forall a b r, g_pow a b = Ok r ->
    exists n, b = ENum (NInt n) /\ 0 < n /\ qi_eq (den r) (qi_powz (den a) n) /\ wf r = true.
  Proof.
    intros a b r H. apply guard_ok in H. destruct H as [Gd H].
    destruct b as [[n| | | | | | ]| | | | | | | | | | | | | | | | | ]; try discriminate Gd.
    apply andb_prop in Gd. destruct Gd as [Gd Pa]. apply andb_prop in Gd. destruct Gd as [Np Oa].
    apply Z.ltb_lt in Np. exists n. split; [reflexivity|]. split; [exact Np|].
    unfold a_pow, api_run in H. cbn [api] in H.
    destruct (pow_int_sound rho rhoc _ a n r Oa (pos_exp_dfn _ Pa) (pos_terms_pow_dfn a n Np Pa) H) as [V _].
    destruct (pow_int_canonical _ a n r Oa H) as (_ & _ & W). split; assumption.
  Qed.

  Lemma c_mfd : forall c d t, g_mfd c d = Ok t ->
    t = mul_from_dict c d /\ xok c = true /\ wf t = true /\ qi_eq (den t) (qi_mul (wp d) (qval c)).
  Proof.
    intros c d t H. apply guard_ok in H. destruct H as [Gd H]. injection H as <-.
    apply andb_prop in Gd. destruct Gd as [Xc W].
    exact (conj eq_refl (conj Xc (conj W (den_mfd rho rhoc c d Xc)))).
  Qed.

  Lemma c_afd : forall c d t, g_afd c d = Ok t ->
    wf t = true /\ qi_eq (den t) (qi_add (qval c) (wsum den d)).
  Proof.
    intros c d t H. apply guard_ok in H. destruct H as [Gd H]. injection H as <-.
    apply andb_prop in Gd. destruct Gd as [Xc D].
    destruct (adict_ok d) eqn:AD; [split; [apply wf_afd; assumption | apply den_afd; assumption]|].
    cbn [orb] in D. apply andb_prop in D. destruct D as [Db L].
    assert (E : add_from_dict c d = EAdd c d).
    { destruct d as [|[k v] [|q r]]; [rewrite aok_nil in AD; discriminate AD | | reflexivity].
      cbn [add_from_dict]. cbn in L. destruct (num_is_zero c); [discriminate L | reflexivity]. }
    rewrite E. split; [apply wf_EAdd_intro; [exact Xc | apply dinv_b_dinv; exact Db] | apply eq_subrelation; [typeclasses eauto | apply denote_EAdd]].
  Qed.

  Definition sval (st : xst) : qi := qi_add (qval (fst st)) (wsum den (snd st)).
  Definition sinv (st : xst) : Prop := xok (fst st) = true /\ dinv (snd st).

  Lemma sinv_init : sinv (NInt 0, []).
  Proof. split; [reflexivity | apply dinv_nil]. Qed.
  Lemma sval_init : qi_eq (sval (NInt 0, [])) qi_zero.
  Proof. unfold sval. cbn [fst snd wsum]. rewrite qval_zero. ring. Qed.

  (* [r], computed from the state [st], returns a state worth [v] more *)
  Definition adds (st : xst) (r : res xst) (v : qi) : Prop :=
    forall st', r = Ok st' -> sinv st -> sinv st' /\ qi_eq (sval st') (qi_add (sval st) v).

  Lemma adds_eq : forall st r v v', adds st r v -> qi_eq v v' -> adds st r v'.
  Proof. intros st r v v' H E st' Hr I. destruct (H st' Hr I) as [I' V]. split; [exact I'|]. rewrite V, E. reflexivity. Qed.
  Lemma adds_ret : forall st, adds st (Ok st) qi_zero.
  Proof. intros st st' [= <-] I. split; [exact I | ring]. Qed.
  Lemma adds_bind : forall st a k v1 v2, adds st a v1 -> (forall s, adds s (k s) v2) -> adds st (bind a k) (qi_add v1 v2).
  Proof.
    intros st a k v1 v2 Ha Hk st' H I. apply bind_ok in H. destruct H as (s & Es & H).
    destruct (Ha s Es I) as [Is Vs]. destruct (Hk s st' H Is) as [I' V']. split; [exact I'|]. rewrite V', Vs. ring.
  Qed.
  (* a call that does not touch the state *)
  Lemma adds_let : forall A st (a : res A) k v, (forall x, a = Ok x -> adds st (k x) v) -> adds st (bind a k) v.
  Proof. intros A st a k v Hk st' H. apply bind_ok in H. destruct H as (x & Ex & H). exact (Hk x Ex st' H). Qed.

  (* a loop over the terms of a sum whose every step adds a times the term *)
  Lemma adds_fold : forall (F : xst -> expr * number -> res xst) (a : qi) d,
    (forall s q, In q d -> adds s (F s q) (qi_mul a (qi_mul (qval (snd q)) (den (fst q))))) ->
    forall st, adds st (fold_res F d st) (qi_mul a (wsum den d)).
  Proof.
    intros F a d. induction d as [|q d IH]; intros H st; cbn [fold_res wsum].
    - eapply adds_eq; [apply adds_ret | ring].
    - eapply adds_eq; [apply adds_bind; [apply H; left; reflexivity | apply IH; intros s p Hp; apply H; right; exact Hp] | ring].
  Qed.

  Lemma adds_addnum : forall st v q, yields v q -> adds st (x_addnum G st v) q.
  Proof.
    intros [c d] v q Hv st' H [Xc I]. unfold x_addnum in H. cbn [fst snd] in *.
    apply bind_ok in H. destruct H as (x & Ex & H). apply bind_ok in H. destruct H as (c' & Ec & H).
    injection H as <-. cbn [o_addnum guarded_ops] in Ec. destruct (c_addnum c x c' Ec) as (_ & Xc' & V).
    split; [split; assumption|]. unfold sval. cbn [fst snd]. rewrite V, (Hv x Ex). ring.
  Qed.
  Lemma addnum_xok : forall st x st', x_addnum G st (Ok x) = Ok st' -> xok x = true.
  Proof.
    intros st x st' H. unfold x_addnum in H. cbn [bind] in H. apply bind_ok in H. destruct H as (c' & Ec & _).
    exact (proj1 (c_addnum _ _ _ Ec)).
  Qed.

  Lemma adds_dat : forall st c t q, yields c q -> adds st (x_dat G st c t) (qi_mul q (den t)).
  Proof.
    intros [c0 d] c t q Hc st' H [Xc I]. unfold x_dat in H. cbn [fst snd] in *.
    apply bind_ok in H. destruct H as (x & Ex & H). apply bind_ok in H. destruct H as (d' & Ed & H).
    injection H as <-. cbn [o_dat guarded_ops] in Ed. apply guard_ok in Ed. destruct Ed as [Gd Ed].
    apply andb_prop in Gd. destruct Gd as [Xx Wt].
    destruct (datm_spec d x t I Wt Xx) as (d'' & E & I' & _ & _ & WS). rewrite E in Ed. injection Ed as <-.
    split; [split; assumption|].
    unfold sval. cbn [fst snd]. rewrite (WS den (denote_respects' rho rhoc)), (Hc x Ex). ring.
  Qed.

  Fixpoint qsum {B : Type} (g : B -> qi) (l : list B) : qi :=
    match l with
    | [] => qi_zero
    | p :: r => qi_add (g p) (qsum g r)
    end.

  Lemma qsum_ext : forall B (g h : B -> qi) l, (forall p, In p l -> qi_eq (g p) (h p)) -> qi_eq (qsum g l) (qsum h l).
  Proof.
    intros B g h l. induction l as [|p l IH]; intros H; cbn [qsum]; [reflexivity|].
    rewrite (H p (or_introl eq_refl)), IH; [reflexivity|]. intros q Hq. apply H. right. exact Hq.
  Qed.
  Lemma qsum_wsum : forall (d : adict), qi_eq (qsum (fun q => qi_mul (qval (snd q)) (den (fst q))) d) (wsum den d).
  Proof. induction d as [|q d IH]; cbn [qsum wsum]; [reflexivity|]. rewrite IH. reflexivity. Qed.

  Lemma adds_cdat : forall st c term, adds st (x_cdat G st c term) (qi_mul (qval c) (den term)).
  Proof.
    intros st c term.
    assert (GEN : adds st (x_dat G st (o_mulnum G c (fst (as_coef_term term))) (snd (as_coef_term term)))
                    (qi_mul (qval c) (den term))).
    { eapply adds_eq; [apply adds_dat, c_mulnum | rewrite (den_as_coef_term rho rhoc term); ring]. }
    destruct term; try exact GEN.
    - (* Number *) apply adds_addnum, c_mulnum.
    - (* Add *)
      eapply adds_eq; [apply adds_bind; [apply (adds_fold _ (qval c)) | intros s; apply adds_addnum, c_mulnum] | rewrite denote_EAdd; ring].
      intros s q _. eapply adds_eq; [apply adds_dat, c_mulnum | ring].
  Qed.
End Sound.
