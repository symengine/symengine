(* C09 obligation: equal expansions imply equal values (the sound half of "expand decides identity"): for
   expressions p, q accepted by the guard, if expand(p) and expand(q) are eq then p and q have the same value
   under every valuation.
   PARTIAL with respect to the design's `expand_decides` (an equivalence for polynomials over Q): the converse
   -- polynomials with equal values everywhere expand to eq expressions -- needs the uniqueness of the expanded
   normal form and "polynomial identity implies coefficient identity", which are not done; that direction is
   covered by the driver's oracle (coefficient dictionaries computed independently from the input trees). *)
From SE Require Import C09.ExpandGuardedOps C09.ExpandSound2 Num.NumSpec Expr.Denote.
Theorem C09_expand_decides_sound_guarded :
  forall (p q rp rq : expr),
  expand_guard true p = true -> expand_guard true q = true ->
  expand true p = Ok rp -> expand true q = Ok rq -> expr_eqb rp rq = true ->
  forall rho rhoc : list N -> qi, qi_eq (denote rho rhoc p) (denote rho rhoc q).
Proof. exact expand_decides_sound_guarded. Qed.
Print Assumptions C09_expand_decides_sound_guarded.
