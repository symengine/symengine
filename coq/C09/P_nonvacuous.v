(* C09: the hypotheses of the theorems are satisfiable by non-trivial inputs, and the model computes the expected
   results on them. *)
From SE Require Import C09.ExpandGuardedOps C09.ExpandGuards C09.Examples C09.MultinomialSpec Expr.Wf.
(* 3*z**2*(x - y)*(x + y)**2: products of sums and a square, accepted by the guard *)
Example guard_product : expand_guard true prod3 = true.
Proof. vm_compute. reflexivity. Qed.
Example result_product : expand true prod3 =
  Ok (EAdd (NInt 0)
        [(EMul (NInt 1) [(sy, ei 3); (sz, ei 2)], NInt (-3));
         (EMul (NInt 1) [(sx, ei 1); (sy, ei 2); (sz, ei 2)], NInt (-3));
         (EMul (NInt 1) [(sx, ei 2); (sy, ei 1); (sz, ei 2)], NInt 3);
         (EMul (NInt 1) [(sx, ei 3); (sz, ei 2)], NInt 3)]).
Proof. vm_compute. reflexivity. Qed.
(* an opaque function application as an atom, a rational coefficient *)
Example guard_function_atom : expand_guard true withf = true.
Proof. vm_compute. reflexivity. Qed.
(* shallow expansion *)
Example guard_shallow : expand_guard false prod3 = true.
Proof. vm_compute. reflexivity. Qed.
(* the guard rejects a cube (pow_expand) and a negative power of a sum *)
Example guard_rejects : expand_guard true (EPow x_plus_y (ei 3)) = false /\ expand_guard true (EPow x_plus_y (ei (-2))) = false.
Proof. split; vm_compute; reflexivity. Qed.
(* the specification predicates on the result: expanded, and a polynomial *)
Example result_expanded :
  match expand true prod3 with Ok r => expanded r && poly_frag r | _ => false end = true.
Proof. rewrite result_product. reflexivity. Qed.
Example input_not_expanded : expanded prod3 = false /\ poly_frag prod3 = true.
Proof. split; vm_compute; reflexivity. Qed.
(* (x + y)**3 through the multinomial table *)
Example cube : expand true (EPow x_plus_y (ei 3)) =
  Ok (EAdd (NInt 0)
        [(EPow sx (ei 3), NInt 1); (EMul (NInt 1) [(sx, ei 2); (sy, ei 1)], NInt 3);
         (EMul (NInt 1) [(sx, ei 1); (sy, ei 2)], NInt 3); (EPow sy (ei 3), NInt 1)]).
Proof. vm_compute. reflexivity. Qed.
Example table_3_2 : multinomial_table 3 2 =
  [([0;0;2], 1%Z); ([0;1;1], 2%Z); ([0;2;0], 1%Z); ([1;0;1], 2%Z); ([1;1;0], 2%Z); ([2;0;0], 1%Z)]%N.
Proof. vm_compute. reflexivity. Qed.
