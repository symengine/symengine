(* C09 -- value preservation of expand, continued: mul_expand_two, square_expand, the visitor and the theorems. *)
From SE Require Import C09.ExpandGuardedOps C09.ExpandMono C09.ExpandSound ExpSubs.QiRing Expr.DenotePow
  Expr.ArithMulUnique Expr.Unfold.
From Coq Require Import QArith Lia Setoid Morphisms.
Local Open Scope Z_scope.
Local Open Scope res_scope.

Section Sound2.
  Variables rho rhoc : list N -> qi.
  Notation den := (denote rho rhoc).
  Notation G := guarded_ops.
  Notation adds := (adds rho rhoc).
  Notation W := (wsum den).

  Lemma adds_add_product : forall fl st cn cd term cv, yields cn cv -> yields cd cv ->
    adds st (x_add_product G fl st cn cd term) (qi_mul cv (den term)).
  Proof.
    intros fl st cn cd term cv Hn Hd.
    assert (GEN : adds st (if fl then do c <- cd; x_cdat G st c term else x_dat G st cd term) (qi_mul cv (den term))).
    { destruct fl; [|apply adds_dat, Hd]. apply adds_let. intros c Ec.
      eapply adds_eq; [apply adds_cdat | rewrite (Hd c Ec); reflexivity]. }
    destruct term; try exact GEN.
    - apply adds_addnum, c_mulnum_l, Hn.
    - cbn [x_add_product]. destruct (negb (num_is_one coef)); [|exact GEN].
      apply adds_let. intros t Et. cbn [o_mfd guarded_ops] in Et. destruct (c_mfd rho rhoc _ _ _ Et) as (_ & _ & _ & Vt).
      eapply adds_eq; [apply adds_dat, c_mulnum_l, Hn | rewrite Vt, (denote_EMul' rho rhoc), qval_one; ring].
  Qed.

  Lemma adds_mul_add_add : forall fl st m ca da cb db,
    adds st (x_mul_add_add G fl st m ca da cb db) (qi_mul (qval m) (qi_mul (den (EAdd ca da)) (den (EAdd cb db)))).
  Proof.
    intros. unfold x_mul_add_add. rewrite !denote_EAdd. eapply adds_eq.
    - apply adds_bind; [apply adds_addnum, c_mulnum_r, c_mulnum|]. intros st0. apply adds_bind.
      + apply (adds_fold _ _ _ (qi_mul (qval m) (qi_add (W db) (qval cb)))). intros s p _.
        apply adds_let. intros temp Et. pose proof (c_mulnum _ _ _ Et) as Vt. eapply adds_eq.
        * apply adds_bind; [|intros s2; apply adds_dat, c_mulnum].
          apply (adds_fold _ _ _ (qi_mul (qval temp) (den (fst p)))). intros s3 q _.
          apply adds_let. intros term Em. destruct (c_mul rho rhoc _ _ _ Em) as [Vm _]. cbv zeta.
          eapply adds_eq; [apply adds_add_product; apply c_mulnum | rewrite Vm; ring].
        * rewrite Vt. ring.
      + intros st1. apply adds_let. intros temp Et. eapply adds_eq.
        * apply (adds_fold _ _ _ (qval temp)). intros s q _. eapply adds_eq; [apply adds_dat, c_mulnum | ring].
        * rewrite (c_mulnum _ _ _ Et). reflexivity.
    - ring.
  Qed.

  Lemma adds_mul_other_add : forall fl st m a cb db,
    adds st (x_mul_other_add G fl st m a cb db) (qi_mul (qval m) (qi_mul (den a) (den (EAdd cb db)))).
  Proof.
    intros. unfold x_mul_other_add.
    apply adds_let. intros acoef Ea. pose proof (c_mulnum _ _ _ Ea) as Va. eapply adds_eq.
    - apply adds_bind with (v2 := qi_mul (qi_mul (qval cb) (qval acoef)) (den (snd (as_coef_term a)))).
      + apply (adds_fold _ _ _ (qi_mul (qval acoef) (den (snd (as_coef_term a))))). intros s q _.
        apply adds_let. intros term Em. destruct (c_mul rho rhoc _ _ _ Em) as [Vm _].
        eapply adds_eq; [apply (adds_add_product _ _ _ _ _ (qi_mul (qval acoef) (qval (snd q)))) | rewrite Vm; ring].
        * eapply yields_eq; [apply c_mulnum | ring].
        * apply c_mulnum.
      + intros st1. destruct (expr_eqb (snd (as_coef_term a)) e_one) eqn:E; [|apply adds_dat, c_mulnum].
        eapply adds_eq; [apply adds_addnum, c_mulnum|].
        rewrite (eqb_one_literal _ E). cbn [denote e_one e_int]. rewrite qval_one. ring.
    - rewrite Va, denote_EAdd, (den_as_coef_term rho rhoc a). ring.
  Qed.

  Definition is_add (e : expr) : bool := match e with EAdd _ _ => true | _ => false end.

  Lemma adds_mul_expand_two : forall fl st m a b,
    adds st (x_mul_expand_two G fl st m a b) (qi_mul (qval m) (qi_mul (den a) (den b))).
  Proof.
    intros fl st m a b.
    assert (PLAIN : adds st (do mm <- o_mul G a b; x_cdat G st m mm) (qi_mul (qval m) (qi_mul (den a) (den b)))).
    { apply adds_let. intros mm Em. destruct (c_mul rho rhoc _ _ _ Em) as [Vm _].
      eapply adds_eq; [apply adds_cdat | rewrite Vm; reflexivity]. }
    assert (LEFT : forall ca da, a = EAdd ca da ->
              adds st (x_mul_other_add G fl st m b ca da) (qi_mul (qval m) (qi_mul (den a) (den b)))).
    { intros ca da ->. eapply adds_eq; [apply adds_mul_other_add | ring]. }
    destruct a; destruct b;
      first [ exact PLAIN | apply adds_mul_other_add | exact (LEFT _ _ eq_refl) | apply adds_mul_add_add ].
  Qed.

  Lemma powz_two : forall x : qi, qi_eq (qi_powz x 2) (qi_mul x x).
  Proof. intros x. unfold qi_powz. change (Pos.to_nat 2) with 2%nat. cbn [qi_pow_nat]. ring. Qed.
  Lemma qval_two : qi_eq (qval (NInt 2)) (qi_add qi_one qi_one).
  Proof. rewrite qval_int. qi_unfold. split; reflexivity. Qed.

  Lemma adds_square : forall bd st m, adds st (x_square G st m bd) (qi_mul (qval m) (qi_mul (W bd) (W bd))).
  Proof.
    induction bd as [|p rest IH]; intros st m; cbn [x_square wsum].
    - eapply adds_eq; [apply adds_ret | ring].
    - apply adds_let. intros sq Esq. cbn [o_pow guarded_ops] in Esq.
      destruct (c_pow rho rhoc _ _ _ Esq) as (n & En & _ & Vsq & _). injection En as <-. rewrite powz_two in Vsq.
      apply adds_let. intros c Ec. pose proof (c_mulnum_l _ _ _ (c_nummul _ _) _ Ec) as Vc. eapply adds_eq.
      + apply adds_bind; [apply adds_cdat|]. intros st1. apply adds_bind; [|intros st2; apply IH].
        apply (adds_fold _ _ _ (qi_mul (qi_mul (qval m) (qi_add qi_one qi_one)) (qi_mul (qval (snd p)) (den (fst p))))).
        intros s q _. apply adds_let. intros prod Em. destruct (c_mul rho rhoc _ _ _ Em) as [Vm _].
        apply adds_let. intros c' Ec'.
        assert (Vc' : qi_eq (qval c') (qi_mul (qval m) (qi_mul (qval (snd p)) (qi_mul (qval (snd q)) (qval (NInt 2)))))).
        { revert c' Ec'. eapply yields_bind; [apply c_mulnum|]. intros q2 V2.
          eapply yields_eq; [apply c_mulnum_r, c_mulnum | rewrite V2; reflexivity]. }
        eapply adds_eq; [apply adds_cdat | rewrite Vc', Vm, qval_two; ring].
      + rewrite Vc, Vsq. ring.
  Qed.
  (* expand(e) with a new visitor, given the visitor's contract at that fuel *)
  Lemma expand_at_sound : forall f deep,
    (forall st m e, wf e = true -> adds st (xvisit G f deep st m e) (qi_mul (qval m) (den e))) ->
    forall e r, wf e = true -> expand_at G f deep e = Ok r -> wf r = true /\ qi_eq (den r) (den e).
  Proof.
    intros f deep X e r We E. unfold expand_at in E. apply bind_ok in E. destruct E as (s & Es & E).
    destruct (X _ _ _ We s Es sinv_init) as [_ Vs].
    cbn [o_afd guarded_ops] in E. destruct (c_afd rho rhoc _ _ _ E) as [Wr Vr]. split; [exact Wr|].
    rewrite Vr. unfold sval in Vs. rewrite Vs. cbn [fst snd wsum]. rewrite qval_zero, qval_one. ring.
  Qed.

  Lemma adds_xvisit : forall f deep st m e, wf e = true -> adds st (xvisit G f deep st m e) (qi_mul (qval m) (den e)).
  Proof.
    induction f as [|f IH]; intros deep st m e We; [intros st' H; discriminate H|]. cbn [xvisit]. cbv zeta.
    pose proof (expand_at_sound f deep (IH deep)) as ER. unfold expand_at in ER.
    assert (EI : forall e' r, wf e' = true ->
              (if deep then do s <- xvisit G f deep (NInt 0, []) (NInt 1) e'; o_afd G (fst s) (snd s) else Ok e') = Ok r ->
              wf r = true /\ qi_eq (den r) (den e')).
    { intros e' r We' E. destruct deep; [exact (ER e' r We' E)|]. injection E as <-. split; [exact We' | reflexivity]. }
    pose proof (adds_dat rho rhoc st _ e _ (yields_ret m)) as DAT.
    destruct e as [n|nm|nm i|nm|c d|c d|base ex|fc fa|fc fa fb|fc fl|nm fl|fc fa fb|fa fl|fa fd|fl|bb|is ie lo ro|tc];
      try exact DAT.
    - (* Number *) apply adds_addnum, c_mulnum.
    - (* Add *)
      eapply adds_eq; [apply adds_bind; [apply adds_addnum, c_mulnum | intros st0; apply (adds_fold _ _ _ (qval m))] | rewrite denote_EAdd; ring].
      intros s p Hp. apply adds_let. intros mm Emm. pose proof (c_mulnum _ _ _ Emm) as Vmm.
      assert (Wp : wf (fst p) = true) by (apply (children_wf (EAdd c d)); [exact We | cbn [children]; apply in_map; exact Hp]).
      eapply adds_eq; [destruct deep; [apply IH, Wp | apply adds_dat, yields_ret] | rewrite Vmm; ring].
    - (* Mul *)
      destruct (forallb (fun p : expr * expr => match fst p with ESym _ => true | _ => false end) d); [apply adds_cdat|].
      destruct d as [|[k v] d']; [apply adds_cdat|].
      apply adds_let. intros a Ea. apply adds_let. intros b Eb. apply adds_let. intros a' Ea'. apply adds_let. intros b' Eb'.
      cbn [o_pow o_mfd guarded_ops] in Ea, Eb.
      destruct (c_pow rho rhoc _ _ _ Ea) as (n & Ev & _ & Va & Wa).
      destruct (c_mfd rho rhoc _ _ _ Eb) as (_ & _ & Wb & Vb).
      assert (Wk : wf k = true) by (apply (children_wf (EMul c ((k, v) :: d'))); [exact We | cbn; left; reflexivity]).
      cbn [merase] in Vb. rewrite (kl_irrefl k Wk) in Vb.
      destruct (EI a a' Wa Ea') as [_ Va']. destruct (EI b b' Wb Eb') as [_ Vb'].
      eapply adds_eq; [apply adds_mul_expand_two|].
      rewrite Va', Vb', Va, Vb, (denote_EMul' rho rhoc), (wp_cons rho rhoc). cbn [fst snd]. rewrite Ev. cbn [qpow]. ring.
    - (* Pow *)
      apply adds_let. intros base' Eb'.
      assert (Wbase : wf base = true) by (apply (children_wf (EPow base ex)); [exact We | cbn; left; reflexivity]).
      destruct (EI base base' Wbase Eb') as [_ Vb'].
      assert (PLAIN : adds st (if negb (expr_eqb base' base) then do p <- o_pow G base' ex; x_cdat G st m p
                               else x_dat G st (Ok m) (EPow base ex)) (qi_mul (qval m) (den (EPow base ex)))).
      { destruct (negb (expr_eqb base' base)); [|exact DAT].
        apply adds_let. intros p Ep. cbn [o_pow guarded_ops] in Ep.
        destruct (c_pow rho rhoc _ _ _ Ep) as (n & Eex & _ & Vp & _).
        eapply adds_eq; [apply adds_cdat | rewrite Vp, Vb'; subst ex; reflexivity]. }
      destruct ex as [[z| | | | | | ]| | | | | | | | | | | | | | | | | ]; try exact PLAIN.
      destruct base' as [| | | |bc bdict| | | | | | | | | | | | | ]; try exact PLAIN.
      (* (sum)^z: the guarded o_div and o_multinomial always fail, so of the three branches (z < 0, z = 2, other z)
         only square_expand returns a value *)
      intros st' H I. destruct (z <? 0) eqn:Zneg.
      { exfalso. apply bind_ok in H. destruct H as (p & _ & H). apply bind_ok in H. destruct H as (p' & _ & H).
        apply bind_ok in H. destruct H as (q & Eq & _). cbn [o_div guarded_ops] in Eq. discriminate Eq. }
      destruct (TWO32 <=? z); [discriminate H|].
      apply bind_ok in H. destruct H as ([st1 bd] & E1 & H).
      destruct (z =? 2) eqn:Z2.
      2:{ exfalso. unfold x_pow_expand in H. apply bind_ok in H. destruct H as (r & Er & _).
          cbn [o_multinomial guarded_ops] in Er. discriminate Er. }
      apply Z.eqb_eq in Z2. subst z.
      (* the numeric coefficient of the base joins the dictionary, or is zero *)
      assert (ST1 : sinv st1 /\ qi_eq (qi_add (sval rho rhoc st1) (qi_mul (qval m) (qi_mul (W bd) (W bd))))
                                     (qi_add (sval rho rhoc st) (qi_mul (qval m) (qi_mul (den (EAdd bc bdict)) (den (EAdd bc bdict)))))).
      { destruct (negb (num_is_zero bc)) eqn:NZ.
        - injection E1 as <- <-. split; [exact I|]. rewrite wsum_app, denote_EAdd. cbn [wsum fst snd denote]. rewrite qval_one. ring.
        - apply bind_ok in E1. destruct E1 as (s & Es & E1). injection E1 as <- <-.
          destruct (adds_addnum rho rhoc _ _ _ (yields_ret bc) s Es I) as [Is Vs]. split; [exact Is|].
          assert (Z0 : qi_eq (qval bc) qi_zero).
          { apply (is_zero_val bc (addnum_xok _ _ _ Es)). destruct (num_is_zero bc); [reflexivity | discriminate NZ]. }
          rewrite Vs, denote_EAdd, Z0. ring. }
      destruct ST1 as [I1 V1].
      destruct (adds_square _ _ _ st' H I1) as [I' V]. split; [exact I'|].
      rewrite V, V1. cbn [denote qpow]. rewrite powz_two, <- Vb'. reflexivity.
  Qed.

  Theorem expand_g_sound : forall deep e r, wf e = true -> expand_g deep e = Ok r ->
    wf r = true /\ qi_eq (den r) (den e).
  Proof. intros deep e. apply expand_at_sound. intros st m. apply adds_xvisit. Qed.
End Sound2.

(* value preservation: whenever the guarded run accepts e ([expand_guard], a boolean computed by the model),
   the model's expand returns a value whose denotation equals that of e under every valuation *)
Theorem expand_sound_guarded : forall deep e, expand_guard deep e = true ->
  exists r, expand deep e = Ok r /\ wf r = true /\
    forall rho rhoc : list N -> qi, qi_eq (denote rho rhoc r) (denote rho rhoc e).
Proof.
  intros deep e Gd. unfold expand_guard in Gd. apply andb_prop in Gd. destruct Gd as [We Ok_].
  destruct (expand_g deep e) as [r| | |] eqn:E; try discriminate Ok_.
  exists r. split; [apply expand_g_refines; exact E|].
  split; [exact (proj1 (expand_g_sound (fun _ => qi_zero) (fun _ => qi_zero) deep e r We E))|].
  intros rho rhoc. exact (proj2 (expand_g_sound rho rhoc deep e r We E)).
Qed.

(* the sound direction of "expand decides identity": equal expansions imply equal values *)
Theorem expand_decides_sound_guarded : forall p q rp rq,
  expand_guard true p = true -> expand_guard true q = true ->
  expand true p = Ok rp -> expand true q = Ok rq -> expr_eqb rp rq = true ->
  forall rho rhoc : list N -> qi, qi_eq (denote rho rhoc p) (denote rho rhoc q).
Proof.
  intros p q rp rq Gp Gq Ep Eq_ EQ rho rhoc.
  destruct (expand_sound_guarded true p Gp) as (rp' & Ep' & Wp & Vp).
  destruct (expand_sound_guarded true q Gq) as (rq' & Eq' & Wq & Vq).
  rewrite Ep in Ep'. injection Ep' as <-. rewrite Eq_ in Eq'. injection Eq' as <-.
  rewrite <- (Vp rho rhoc), <- (Vq rho rhoc). apply denote_respects; assumption.
Qed.
