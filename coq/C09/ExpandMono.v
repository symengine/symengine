(* C09 -- the expand visitor is monotone in its library calls: when every call of O1 that returns a value
   returns the same value under O2, so does the visitor.  Instance: the guarded calls of
   C09/ExpandGuardedOps.v against the real ones ([expand_g_refines]). *)
From SE Require Import C09.ExpandGuardedOps.
Local Open Scope res_scope.

Definition refines {A : Type} (a b : res A) : Prop := forall r, a = Ok r -> b = Ok r.

Lemma refines_refl : forall A (a : res A), refines a a.
Proof. intros A a r H. exact H. Qed.
Lemma refines_err : forall A c (b : res A), refines (ErrExn c) b.
Proof. intros A c b r H. discriminate H. Qed.
Lemma refines_guard : forall A b (r : res A), refines (guard b r) r.
Proof. intros A b r x H. unfold guard in H. destruct b; [exact H | discriminate H]. Qed.
Lemma refines_bind : forall A B (a b : res A) (k1 k2 : A -> res B),
  refines a b -> (forall x, refines (k1 x) (k2 x)) -> refines (bind a k1) (bind b k2).
Proof.
  intros A B a b k1 k2 H K r E. destruct a as [x| | |]; cbn in E; try discriminate E.
  rewrite (H x eq_refl). cbn. apply K. exact E.
Qed.
Lemma refines_fold : forall A B (F1 F2 : A -> B -> res A) l,
  (forall s p, refines (F1 s p) (F2 s p)) -> forall s, refines (fold_res F1 l s) (fold_res F2 l s).
Proof.
  intros A B F1 F2 l H. induction l as [|p l IH]; intros s; cbn [fold_res]; [apply refines_refl|].
  apply refines_bind; [apply H | exact IH].
Qed.

Record ops_le (O1 O2 : xops) : Prop := {
  le_mul : forall a b, refines (o_mul O1 a b) (o_mul O2 a b);
  le_pow : forall a b, refines (o_pow O1 a b) (o_pow O2 a b);
  le_div : forall a b, refines (o_div O1 a b) (o_div O2 a b);
  le_datn : forall s a b, refines (o_datn O1 s a b) (o_datn O2 s a b);
  le_mdat : forall d a b, refines (o_mdat O1 d a b) (o_mdat O2 d a b);
  le_mfd : forall c d, refines (o_mfd O1 c d) (o_mfd O2 c d);
  le_afd : forall c d, refines (o_afd O1 c d) (o_afd O2 c d);
  le_mulnum : forall x y, refines (o_mulnum O1 x y) (o_mulnum O2 x y);
  le_nummul : forall x y, refines (o_nummul O1 x y) (o_nummul O2 x y);
  le_numpow : forall x y, refines (o_numpow O1 x y) (o_numpow O2 x y);
  le_intpow : forall x y, refines (o_intpow O1 x y) (o_intpow O2 x y);
  le_addnum : forall x y, refines (o_addnum O1 x y) (o_addnum O2 x y);
  le_dat : forall d c t, refines (o_dat O1 d c t) (o_dat O2 d c t);
  le_multinomial : forall m n, refines (o_multinomial O1 m n) (o_multinomial O2 m n)
}.

Section Mono.
  Variables O1 O2 : xops.
  Hypothesis LE : ops_le O1 O2.

  (* [rb]: a bind on both sides (first goal: the two calls; then the continuations).  [op]: the two sides are the
     same library call of O1 and of O2, or literally equal *)
  Ltac rb := apply refines_bind; [|intros ?].
  Ltac op := first [ apply (le_mul _ _ LE) | apply (le_pow _ _ LE) | apply (le_div _ _ LE) | apply (le_datn _ _ LE)
                   | apply (le_mdat _ _ LE) | apply (le_mfd _ _ LE) | apply (le_afd _ _ LE) | apply (le_mulnum _ _ LE)
                   | apply (le_nummul _ _ LE) | apply (le_numpow _ _ LE) | apply (le_intpow _ _ LE)
                   | apply (le_addnum _ _ LE) | apply (le_dat _ _ LE) | apply (le_multinomial _ _ LE)
                   | apply refines_refl ].

  Lemma x_addnum_le : forall st v1 v2, refines v1 v2 -> refines (x_addnum O1 st v1) (x_addnum O2 st v2).
  Proof. intros st v1 v2 H. unfold x_addnum. rb; [exact H|]. rb; op. Qed.
  Lemma x_dat_le : forall st c1 c2 t, refines c1 c2 -> refines (x_dat O1 st c1 t) (x_dat O2 st c2 t).
  Proof. intros st c1 c2 t H. unfold x_dat. rb; [exact H|]. rb; op. Qed.

  Lemma x_cdat_le : forall st c term, refines (x_cdat O1 st c term) (x_cdat O2 st c term).
  Proof.
    intros st c term. unfold x_cdat. destruct term; try (apply x_dat_le; op).
    - apply x_addnum_le; op.
    - rb; [|apply x_addnum_le; op]. apply refines_fold. intros s q. apply x_dat_le; op.
  Qed.

  Lemma x_add_product_le : forall fl st cn1 cn2 cd1 cd2 term, refines cn1 cn2 -> refines cd1 cd2 ->
    refines (x_add_product O1 fl st cn1 cd1 term) (x_add_product O2 fl st cn2 cd2 term).
  Proof.
    intros fl st cn1 cn2 cd1 cd2 term Hn Hd. unfold x_add_product.
    assert (PL : refines (if fl then do c <- cd1; x_cdat O1 st c term else x_dat O1 st cd1 term)
                         (if fl then do c <- cd2; x_cdat O2 st c term else x_dat O2 st cd2 term)).
    { destruct fl; [apply refines_bind; [exact Hd | intros ?; apply x_cdat_le] | apply x_dat_le; exact Hd]. }
    destruct term; try exact PL.
    - apply x_addnum_le. rb; [exact Hn | op].
    - destruct (negb (num_is_one coef)); [|exact PL].
      rb; [op|]. apply x_dat_le. rb; [exact Hn | op].
  Qed.

  Lemma x_mul_add_add_le : forall fl st m ca da cb db,
    refines (x_mul_add_add O1 fl st m ca da cb db) (x_mul_add_add O2 fl st m ca da cb db).
  Proof.
    intros. unfold x_mul_add_add.
    rb; [apply x_addnum_le; rb; op|].
    rb.
    - apply refines_fold. intros s p. rb; [op|]. rb; [|apply x_dat_le; op].
      apply refines_fold. intros s' q. rb; [op|]. apply x_add_product_le; op.
    - rb; [op|]. apply refines_fold. intros s q. apply x_dat_le; op.
  Qed.

  Lemma x_mul_other_add_le : forall fl st m a cb db,
    refines (x_mul_other_add O1 fl st m a cb db) (x_mul_other_add O2 fl st m a cb db).
  Proof.
    intros. unfold x_mul_other_add. rb; [op|]. rb.
    - apply refines_fold. intros s q. rb; [op|]. apply x_add_product_le; op.
    - destruct (expr_eqb (snd (as_coef_term a)) e_one); [apply x_addnum_le | apply x_dat_le]; op.
  Qed.

  Lemma x_mul_expand_two_le : forall fl st m a b,
    refines (x_mul_expand_two O1 fl st m a b) (x_mul_expand_two O2 fl st m a b).
  Proof.
    intros. unfold x_mul_expand_two.
    destruct a; destruct b;
      first [ apply x_mul_add_add_le | apply x_mul_other_add_le | (rb; [op | apply x_cdat_le]) ].
  Qed.

  Lemma x_square_le : forall bd st m, refines (x_square O1 st m bd) (x_square O2 st m bd).
  Proof.
    induction bd as [|p rest IH]; intros st m; cbn [x_square]; [apply refines_refl|].
    rb; [op|]. rb; [rb; op|]. rb; [apply x_cdat_le|]. rb; [|apply IH].
    apply refines_fold. intros s q. rb; [op|]. rb; [rb; [op|]; rb; op|]. apply x_cdat_le.
  Qed.

  Lemma x_pow_factor_le : forall st pw base value,
    refines (x_pow_factor O1 st pw base value) (x_pow_factor O2 st pw base value).
  Proof.
    intros. unfold x_pow_factor. rb.
    - assert (G : forall b, refines
          (do tmp <- o_pow O1 b (e_int (Z.of_N pw));
           match tmp with
           | EMul tc td => do s <- fold_res (fun s p => o_datn O1 s (snd p) (fst p)) td st;
                           do c <- o_mulnum O1 (fst s) tc; Ok (c, snd s)
           | ENum tn => do c <- o_mulnum O1 (fst st) tn; Ok (c, snd st)
           | _ => do et <- as_base_exp tmp; o_datn O1 st (fst et) (snd et)
           end)
          (do tmp <- o_pow O2 b (e_int (Z.of_N pw));
           match tmp with
           | EMul tc td => do s <- fold_res (fun s p => o_datn O2 s (snd p) (fst p)) td st;
                           do c <- o_mulnum O2 (fst s) tc; Ok (c, snd s)
           | ENum tn => do c <- o_mulnum O2 (fst st) tn; Ok (c, snd st)
           | _ => do et <- as_base_exp tmp; o_datn O2 st (fst et) (snd et)
           end)).
      { intros b. rb; [op|]. destruct x; try (rb; op).
        rb; [apply refines_fold; intros; op|]. rb; op. }
      destruct base; try apply G.
      + destruct n; try apply G. rb; [op|]. rb; op.
      + rb; op.
    - destruct (negb (num_is_one value)); [|apply refines_refl]. rb; [op|]. rb; op.
  Qed.

  Lemma x_pow_factors_le : forall pws bd st, refines (x_pow_factors O1 st pws bd) (x_pow_factors O2 st pws bd).
  Proof.
    induction pws as [|pw ps IH]; intros bd st; destruct bd as [|[base value] rest]; cbn [x_pow_factors];
      try apply refines_refl.
    rb; [|apply IH]. destruct (0 <? pw)%N; [apply x_pow_factor_le | apply refines_refl].
  Qed.

  Lemma x_pow_expand_le : forall st m bd n, refines (x_pow_expand O1 st m bd n) (x_pow_expand O2 st m bd n).
  Proof.
    intros. unfold x_pow_expand. rb; [op|]. apply refines_fold. intros s pc.
    rb; [apply x_pow_factors_le|]. rb; [op|].
    destruct x1; try (apply x_dat_le; op).
    - apply x_addnum_le. rb; op.
    - destruct (negb (num_is_one coef)); [|apply x_dat_le; op]. rb; [op|]. apply x_dat_le. rb; op.
  Qed.

  Lemma xvisit_le : forall f1 f2 deep st m e, (f1 <= f2)%nat ->
    refines (xvisit O1 f1 deep st m e) (xvisit O2 f2 deep st m e).
  Proof.
    induction f1 as [|f IH]; intros f2 deep st m e L; [intros r H; discriminate H|].
    destruct f2 as [|g]; [inversion L|]. apply le_S_n in L. cbn [xvisit].
    assert (ER : forall e', refines (do s <- xvisit O1 f deep (NInt 0, []) (NInt 1) e'; o_afd O1 (fst s) (snd s))
                                    (do s <- xvisit O2 g deep (NInt 0, []) (NInt 1) e'; o_afd O2 (fst s) (snd s))).
    { intros e'. rb; [apply IH; exact L | op]. }
    assert (EI : forall e', refines (if deep then do s <- xvisit O1 f deep (NInt 0, []) (NInt 1) e'; o_afd O1 (fst s) (snd s) else Ok e')
                                    (if deep then do s <- xvisit O2 g deep (NInt 0, []) (NInt 1) e'; o_afd O2 (fst s) (snd s) else Ok e')).
    { intros e'. destruct deep; [apply ER | apply refines_refl]. }
    destruct e; try (apply x_dat_le; apply refines_refl).
    - apply x_addnum_le; op.
    - rb; [apply x_addnum_le; op|]. apply refines_fold. intros s p. rb; [op|].
      destruct deep; [apply IH; exact L | apply x_dat_le; apply refines_refl].
    - destruct (forallb _ d); [apply x_cdat_le|]. destruct d as [|[k v] d']; [apply x_cdat_le|].
      rb; [op|]. rb; [op|]. rb; [apply EI|]. rb; [apply EI|]. apply x_mul_expand_two_le.
    - rb; [apply EI|].
      assert (G : refines
         (if negb (expr_eqb x e1) then do p <- o_pow O1 x e2; x_cdat O1 st m p else x_dat O1 st (Ok m) (EPow e1 e2))
         (if negb (expr_eqb x e1) then do p <- o_pow O2 x e2; x_cdat O2 st m p else x_dat O2 st (Ok m) (EPow e1 e2))).
      { destruct (negb (expr_eqb x e1)); [rb; [op | apply x_cdat_le] | apply x_dat_le; apply refines_refl]. }
      destruct e2; try exact G. destruct n; try exact G. destruct x; try exact G.
      destruct (z <? 0)%Z.
      + rb; [op|]. rb; [apply EI|]. rb; [op|]. apply x_cdat_le.
      + destruct (TWO32 <=? z)%Z; [apply refines_refl|]. rb.
        * destruct (negb (num_is_zero coef)); [apply refines_refl|]. rb; [apply x_addnum_le; apply refines_refl | apply refines_refl].
        * destruct x as [st1 bd]. destruct (z =? 2)%Z; [apply x_square_le | apply x_pow_expand_le].
  Qed.

  Lemma expand_at_le : forall f1 f2 deep e, (f1 <= f2)%nat -> refines (expand_at O1 f1 deep e) (expand_at O2 f2 deep e).
  Proof. intros. unfold expand_at. rb; [apply xvisit_le; assumption | op]. Qed.
End Mono.

Lemma guarded_le_real : ops_le guarded_ops real_ops.
Proof.
  split; cbn [guarded_ops real_ops o_mul o_pow o_div o_datn o_mdat o_mfd o_afd o_mulnum o_nummul o_numpow o_intpow
                  o_addnum o_dat o_multinomial]; intros;
    first [ apply refines_err | apply refines_guard ].
Qed.
Lemma ops_le_refl : forall O, ops_le O O.
Proof. intros O. split; intros; apply refines_refl. Qed.

(* a value returned by the guarded run is the value returned by the model *)
Theorem expand_g_refines : forall deep e r, expand_g deep e = Ok r -> expand deep e = Ok r.
Proof. intros deep e r. apply (expand_at_le guarded_ops real_ops guarded_le_real _ _ deep e (le_n _)). Qed.

(* the result of expand (a value) does not depend on the fuel once the fuel suffices *)
Theorem expand_fuel_mono : forall f f' deep e r, (f <= f')%nat ->
  expand_at real_ops f deep e = Ok r -> expand_at real_ops f' deep e = Ok r.
Proof. intros f f' deep e r L. apply (expand_at_le real_ops real_ops (ops_le_refl _) f f' deep e L). Qed.
