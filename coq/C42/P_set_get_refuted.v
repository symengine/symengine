(* C42 obligation: as coded, setbasic_get has no range check at all (the function returns void): an index >= size dereferences end(). *)
From SE Require Import C42.CWrapSpec C42.CContainers C42.CWrapProofs.
Local Open Scope string_scope.
Theorem C42_set_get_refuted :
  forall (st : state) (i j : nat) (s : list val) (n : nat),
    nth_error (s_s st) i = Some s -> (j < length (s_b st))%nat -> (length s <= n)%nat ->
    hand_step "setbasic_get" st [AS i; AZ (Z.of_nat n); AB j] = (MemErr (N.of_nat n) (nlen s), st).
Proof.
  intros st i j s n Hs Hj Hn. change (hand_step "setbasic_get") with h_set_get.
  rewrite (h_set_get_eq _ _ _ _ _ Hs Hj), (proj2 (nth_error_None s n) Hn). reflexivity.
Qed.
Print Assumptions C42_set_get_refuted.
