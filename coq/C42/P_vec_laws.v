(* C42 obligation: CVecBasic behaves as a vector for indices in range (push_back / size / get / set / erase = list operations). *)
From SE Require Import C42.CWrapSpec C42.CContainers C42.CWrapProofs.
Local Open Scope string_scope.
Theorem C42_vec_laws :
  forall (st : state) (i j k : nat) (l : list val) (v : val),
    nth_error (s_v st) i = Some l -> nth_error (s_b st) j = Some v -> (k < length (s_b st))%nat ->
    let st1 := set_v st i (l ++ [v])%list in
    hand_step "vecbasic_push_back" st [AV i; AB j] = (NOEXC, st1) /\
    hand_step "vecbasic_size" st1 [AV i] = (RetInt (Z.of_nat (S (length l))), st1) /\
    hand_step "vecbasic_get" st1 [AV i; AZ (Z.of_nat (length l)); AB k] = (NOEXC, set_b st1 k v) /\
    (forall n x, nth_error l n = Some x ->
       hand_step "vecbasic_get" st1 [AV i; AZ (Z.of_nat n); AB k] = (NOEXC, set_b st1 k x)) /\
    (forall n, (n < length l)%nat ->
       hand_step "vecbasic_set" st [AV i; AZ (Z.of_nat n); AB j] = (NOEXC, set_v st i (upd_nth l n v)) /\
       nth_error (upd_nth l n v) n = Some v /\
       (forall m, m <> n -> nth_error (upd_nth l n v) m = nth_error l m) /\ length (upd_nth l n v) = length l) /\
    (forall n, (n < length l)%nat ->
       hand_step "vecbasic_erase" st [AV i; AZ (Z.of_nat n)] = (NOEXC, set_v st i (remove_nth l n)) /\
       length (remove_nth l n) = pred (length l) /\
       (forall m, (m < n)%nat -> nth_error (remove_nth l n) m = nth_error l m) /\
       (forall m, (n <= m)%nat -> nth_error (remove_nth l n) m = nth_error l (S m))).
Proof.
  intros st i j k l v Hl Hv Hk st1.
  assert (Hl1 : nth_error (s_v st1) i = Some (l ++ [v])%list) by exact (nth_upd_nth_eq _ _ _ (nth_error_lt Hl)).
  repeat split.
  - change (hand_step "vecbasic_push_back") with h_vec_push_back. unfold h_vec_push_back. rewrite Hl, Hv. reflexivity.
  - change (hand_step "vecbasic_size") with h_vec_size. unfold h_vec_size.
    rewrite Hl1, app_length, Nat.add_1_r. reflexivity.
  - change (hand_step "vecbasic_get") with h_vec_get. rewrite (h_vec_get_eq _ _ _ _ _ Hl1 Hk), nth_app_last. reflexivity.
  - intros n x Hn. change (hand_step "vecbasic_get") with h_vec_get.
    rewrite (h_vec_get_eq _ _ _ _ _ Hl1 Hk), nth_app_old, Hn by exact (nth_error_lt Hn). reflexivity.
  - change (hand_step "vecbasic_set") with h_vec_set.
    rewrite (h_vec_set_eq _ _ _ _ _ _ Hl Hv), (proj2 (Nat.ltb_lt n (length l))) by assumption. reflexivity.
  - apply nth_upd_nth_eq. assumption.
  - intros m Hm. apply nth_upd_nth_ne. congruence.
  - apply upd_nth_length.
  - change (hand_step "vecbasic_erase") with h_vec_erase.
    rewrite (h_vec_erase_eq _ _ _ _ Hl), (proj2 (Nat.ltb_lt n (length l))) by assumption. reflexivity.
  - apply remove_nth_length. assumption.
  - intros m Hm. apply nth_remove_nth_lt. assumption.
  - intros m Hm. apply nth_remove_nth_ge. assumption.
Qed.
Print Assumptions C42_vec_laws.
