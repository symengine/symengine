(* C42 obligation: vecbasic_get / vecbasic_set / vecbasic_erase with an index outside the vector return SYMENGINE_RUNTIME_ERROR and
   change nothing.  [Was refuted -- unchecked access -- until the repair of the three functions.] *)
From SE Require Import C42.CWrapSpec C42.CContainers C42.CWrapProofs.
Local Open Scope string_scope.
Theorem C42_vec_out_of_range_error :
  forall (st : state) (i j : nat) (l : list val) (n : nat),
    nth_error (s_v st) i = Some l -> nth_error (s_b st) j <> None -> (length l <= n)%nat ->
    hand_step "vecbasic_get" st [AV i; AZ (Z.of_nat n); AB j] = (RetCode SYMENGINE_RUNTIME_ERROR, st) /\
    hand_step "vecbasic_set" st [AV i; AZ (Z.of_nat n); AB j] = (RetCode SYMENGINE_RUNTIME_ERROR, st) /\
    hand_step "vecbasic_erase" st [AV i; AZ (Z.of_nat n)] = (RetCode SYMENGINE_RUNTIME_ERROR, st).
Proof.
  intros st i j l n Hl Hj Hn.
  destruct (nth_error (s_b st) j) as [v|] eqn:Ev; [clear Hj | contradiction Hj; reflexivity].
  repeat split.
  - change (hand_step "vecbasic_get") with h_vec_get.
    rewrite (h_vec_get_eq _ _ _ _ _ Hl (nth_error_lt Ev)), (proj2 (nth_error_None l n) Hn). reflexivity.
  - change (hand_step "vecbasic_set") with h_vec_set.
    rewrite (h_vec_set_eq _ _ _ _ _ _ Hl Ev), (proj2 (Nat.ltb_ge _ _) Hn). reflexivity.
  - change (hand_step "vecbasic_erase") with h_vec_erase.
    rewrite (h_vec_erase_eq _ _ _ _ Hl), (proj2 (Nat.ltb_ge _ _) Hn). reflexivity.
Qed.
Print Assumptions C42_vec_out_of_range_error.
