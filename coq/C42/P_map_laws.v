(* C42 obligation: CMapBasicBasic behaves as a map on eq-classes of keys: lookup after insert, size. *)
From SE Require Import C42.CWrapSpec C42.CContainers C42.CWrapProofs.
Local Open Scope string_scope.
Theorem C42_map_laws :
  forall (st : state) (i j k o : nat) (m : list (val * val)) (key v : val),
    state_inv st -> nth_error (s_m st) i = Some m -> nth_error (s_b st) j = Some key -> nth_error (s_b st) k = Some v ->
    (o < length (s_b st))%nat ->
    let st1 := set_m st i (map_set vlt key v m) in
    hand_step "mapbasicbasic_insert" st [AM i; AB j; AB k] = (RetVoid, st1) /\
    (forall j' key', nth_error (s_b st) j' = Some key' ->
       hand_step "mapbasicbasic_get" st1 [AM i; AB j'; AB o] =
         match (if equiv val vlt key' key then Some v else map_get vlt key' m) with
         | Some x => (RetInt 1, set_b st1 o x)
         | None => (RetInt 0, st1)
         end) /\
    hand_step "mapbasicbasic_size" st1 [AM i] =
      (RetInt (Z.of_nat (length m + match map_get vlt key m with Some _ => 0 | None => 1 end)), st1).
Proof.
  intros st i j k o m key v Hinv Hm Hkey Hv Ho st1.
  pose proof (Forall_nth_error (inv_b _ Hinv) Hkey) as Hkw.
  destruct (Forall_nth_error (inv_m _ Hinv) Hm) as [Hm1 [_ Hm3]].
  assert (Hm1' : nth_error (s_m st1) i = Some (map_set vlt key v m)) by exact (nth_upd_nth_eq _ _ _ (nth_error_lt Hm)).
  repeat split.
  - change (hand_step "mapbasicbasic_insert") with h_map_insert. unfold h_map_insert. rewrite Hm, Hkey, Hv. reflexivity.
  - intros j' key' Hk'. change (hand_step "mapbasicbasic_get") with h_map_get. unfold h_map_get.
    rewrite Hm1'. change (s_b st1) with (s_b st).
    rewrite Hk', (proj2 (Nat.ltb_lt _ _) Ho), (map_get_set val vlt val_wf)
      by eauto using (Forall_nth_error (inv_b _ Hinv) Hk') with vord.
    reflexivity.
  - change (hand_step "mapbasicbasic_size") with h_map_size. unfold h_map_size.
    rewrite Hm1', (map_set_length val vlt val_wf) by eauto with vord. reflexivity.
Qed.
Print Assumptions C42_map_laws.
