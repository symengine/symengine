(* C42 obligation: CSetBasic behaves as a set of eq-classes: insert answers 1 exactly for a new element and is idempotent, membership
   after insert / erase, size (in every state satisfying the invariant, i.e. after ANY call history, see P_state_inv.v). *)
From SE Require Import C42.CWrapSpec C42.CContainers C42.CWrapProofs.
Local Open Scope string_scope.
Theorem C42_set_laws :
  forall (st : state) (i j : nat) (s : list val) (v : val),
    state_inv st -> nth_error (s_s st) i = Some s -> nth_error (s_b st) j = Some v ->
    let st1 := set_s st i (snd (set_insert vlt v s)) in
    hand_step "setbasic_insert" st [AS i; AB j] = (RetInt (if set_find vlt v s then 0 else 1), st1) /\
    hand_step "setbasic_insert" st1 [AS i; AB j] = (RetInt 0, st1) /\
    (forall j' w, nth_error (s_b st) j' = Some w ->
       hand_step "setbasic_find" st1 [AS i; AB j'] =
         (RetInt (if equiv val vlt w v || set_find vlt w s then 1 else 0), st1)) /\
    hand_step "setbasic_size" st1 [AS i] = (RetInt (Z.of_nat (length s + (if set_find vlt v s then 0 else 1))), st1) /\
    (let st2 := set_s st i (snd (set_erase vlt v s)) in
     hand_step "setbasic_erase" st [AS i; AB j] = (RetInt (if set_find vlt v s then 1 else 0), st2) /\
     (forall j' w, nth_error (s_b st) j' = Some w ->
        hand_step "setbasic_find" st2 [AS i; AB j'] =
          (RetInt (if negb (equiv val vlt w v) && set_find vlt w s then 1 else 0), st2))).
Proof.
  intros st i j s v Hinv Hs Hv st1.
  pose proof (Forall_nth_error (inv_b _ Hinv) Hv) as Hvw.
  destruct (Forall_nth_error (inv_s _ Hinv) Hs) as [Hs1 Hs2].
  assert (Hst : forall s', nth_error (s_s (set_s st i s')) i = Some s')
    by (intro s'; exact (nth_upd_nth_eq _ _ _ (nth_error_lt Hs))).
  assert (Hfst : fst (set_insert vlt v s) = negb (set_find vlt v s))
    by (apply (set_insert_fst val vlt val_wf); assumption).
  repeat split.
  - change (hand_step "setbasic_insert") with h_set_insert. unfold h_set_insert. rewrite Hs, Hv, Hfst.
    destruct (set_find vlt v s); reflexivity.
  - change (hand_step "setbasic_insert") with h_set_insert. unfold h_set_insert, st1.
    rewrite Hst. change (s_b (set_s st i _)) with (s_b st).
    rewrite Hv, (set_insert_idem val vlt val_wf) by eauto with vord.
    unfold set_s. cbn [fst snd s_b s_v s_s s_m]. rewrite upd_nth_twice. reflexivity.
  - intros j' w Hw. change (hand_step "setbasic_find") with h_set_find. unfold h_set_find, st1.
    rewrite Hst. change (s_b (set_s st i _)) with (s_b st).
    rewrite Hw, (set_find_insert val vlt val_wf) by eauto using (Forall_nth_error (inv_b _ Hinv) Hw) with vord.
    reflexivity.
  - change (hand_step "setbasic_size") with h_set_size. unfold h_set_size, st1.
    rewrite Hst, set_insert_length, Hfst. destruct (set_find vlt v s); reflexivity.
  - change (hand_step "setbasic_erase") with h_set_erase. unfold h_set_erase. rewrite Hs, Hv, set_erase_fst. reflexivity.
  - intros j' w Hw. change (hand_step "setbasic_find") with h_set_find. unfold h_set_find.
    rewrite Hst. change (s_b (set_s st i _)) with (s_b st).
    rewrite Hw, (set_find_erase val vlt val_wf) by eauto using (Forall_nth_error (inv_b _ Hinv) Hw) with vord.
    reflexivity.
Qed.
Print Assumptions C42_set_laws.
