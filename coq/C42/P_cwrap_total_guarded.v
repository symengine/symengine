(* C42 obligation: cwrap_total on the table read from the current cwrapper.cpp: every extern "C" function keeps its throwing calls
   inside CWRAPPER_BEGIN/END (or a try block returning nullptr) -- except the explicitly listed functions, all of which are
   really unprotected (the lists are not padding).  Full statement `forallb protected cwrap_table = true` is REFUTED
   (P_cwrap_total_refuted.v). *)
From SE Require Import C42.CWrapSpec C42.CContainers C42.CWrapProofs C42.Gen_CWrap C42.CWrapTable.
Local Open Scope string_scope.
Theorem C42_cwrap_total_guarded :
  forallb total_or_listed cwrap_table = true /\
  forallb (fun n => match find_cfun cwrap_table n with Some f => negb (protected f) | None => false end)
          (known_escaping ++ unconfirmed_escaping) = true.
Proof. split; [exact cwrap_total_guarded | vm_compute; reflexivity]. Qed.
Print Assumptions C42_cwrap_total_guarded.
