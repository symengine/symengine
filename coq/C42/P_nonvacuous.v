(* C42: the hypotheses of the theorems are met by concrete non-trivial inputs, and the model computes
   the expected outcomes on a call sequence that exercises exception translation, the argument order,
   and the vector / set / map functions (evaluated by the kernel on the CURRENT generated table). *)
From SE Require Import C42.CWrapSpec C42.CContainers C42.CWrapProofs C42.Gen_CWrap C42.CWrapTable.
Local Open Scope string_scope.

(* a small concrete C++ core: symbol("x") / symbol("y"), integer(3), sub as a tagged Add, parse throws *)
Definition vx : val := mkval 1 (ESym [120%N]).
Definition vy : val := mkval 2 (ESym [121%N]).
Definition demo_core : oracle := fun k t a =>
  if t =? "parse($)" then ErrExn EXN_PARSE
  else if t =? "symbol($)" then
    match a with
    | [CS s] => if s =? "x" then Ok (CB vx) else if s =? "y" then Ok (CB vy) else ErrExn EXN_SYMENGINE
    | _ => ErrFuel
    end
  else if t =? "integer(integer_class($))" then
    match a with [CZ 3%Z] => Ok (CB (mkval 3 (ENum (NInt 3)))) | _ => ErrFuel end
  else if t =? "sub($,$)" then
    match a with
    | [CB a1; CB a2] => Ok (CB (mkval (10 * vtag a1 + vtag a2) (EAdd (NInt 0) [(vex a1, NInt 1); (vex a2, NInt (-1))])))
    | _ => ErrFuel
    end
  else ErrExn EXN_NOTIMPL.

Definition demo_calls : list call := [
  mkcall "symbol_set" [AB 0; AT "x"];
  mkcall "integer_set_si" [AB 1; AZ 3];
  mkcall "basic_parse" [AB 2; AT "x+"];                 (* the C++ side throws ParseError *)
  mkcall "basic_sub" [AB 2; AB 0; AB 1];                (* x - 3, not 3 - x *)
  mkcall "setbasic_insert" [AS 0; AB 0];
  mkcall "setbasic_insert" [AS 0; AB 1];
  mkcall "setbasic_insert" [AS 0; AB 0];                (* idempotent *)
  mkcall "setbasic_find" [AS 0; AB 1];
  mkcall "vecbasic_push_back" [AV 0; AB 1];
  mkcall "vecbasic_get" [AV 0; AZ 0; AB 3];
  mkcall "mapbasicbasic_insert" [AM 0; AB 0; AB 1];
  mkcall "mapbasicbasic_get" [AM 0; AB 0; AB 2];
  mkcall "vecbasic_get" [AV 0; AZ 1; AB 3];             (* out of range: error code *)
  mkcall "rational_set_si" [AB 3; AZ 1; AZ 0];          (* zero denominator: error code, no C++ call *)
  mkcall "setbasic_get" [AS 0; AZ 2; AB 3]              (* out of range: unchecked access, the run stops *)
].

Example C42_demo_run :
  map fst (run demo_core cwrap_table 0 (init_state 4 1 1 1) demo_calls)
  = [RetCode 0; RetCode 0; RetCode SYMENGINE_PARSE_ERROR; RetCode 0; RetInt 1; RetInt 1; RetInt 0; RetInt 1;
     RetCode 0; RetCode 0; RetVoid; RetInt 1; RetCode SYMENGINE_RUNTIME_ERROR; RetCode SYMENGINE_DIV_BY_ZERO; MemErr 2 2]
  /\ (* argument order of basic_sub: tag 13 = (x, 3) *)
  option_map vtag (nth_error (s_b (snd (nth 3 (run demo_core cwrap_table 0 (init_state 4 1 1 1) demo_calls)
                                           (Unmodelled, init_state 0 0 0 0)))) 2) = Some 13%N.
Proof. split; vm_compute; reflexivity. Qed.
Print Assumptions C42_demo_run.

(* the invariant (hypothesis of the container laws) on every state this run reaches: well-formed values, a set with two
   elements in RCPBasicKeyLess order *)
Example C42_demo_states_inv :
  forallb (fun os => forallb (fun v => wf (vex v)) (s_b (snd os))
                     && forallb (fun s => forallb (fun v => wf (vex v)) s
                                          && match s with [a; b] => vlt a b | [] | [_] => true | _ => false end)
                                (s_s (snd os)))
          (run demo_core cwrap_table 0 (init_state 4 1 1 1) demo_calls) = true
  /\ existsb (fun os => existsb (fun s => Nat.eqb (length s) 2) (s_s (snd os)))
             (run demo_core cwrap_table 0 (init_state 4 1 1 1) demo_calls) = true.
Proof. split; vm_compute; reflexivity. Qed.

(* core_respects_nothrow holds for a core that DOES throw (where the code has no try block around a throwing callee) *)
Definition init_throws : oracle := fun _ t _ => if t =? "$.init($,$,$)" then ErrExn EXN_SYMENGINE else Ok CNull.
Example C42_core_respects_nothrow_nonvacuous :
  core_respects_nothrow init_throws cwrap_table /\ init_throws 0%N "$.init($,$,$)" [] = ErrExn EXN_SYMENGINE.
Proof.
  split; [|reflexivity].
  intros f Hin Hw Hp k args cls. unfold init_throws.
  assert (T : forallb (fun f => negb (wrapk_eqb (cf_wrap f) WNone && protected f && (cf_tmpl f =? "$.init($,$,$)")))
                      cwrap_table = true) by (vm_compute; reflexivity).
  rewrite forallb_forall in T. specialize (T f Hin). rewrite Hw, Hp in T. cbn [wrapk_eqb andb] in T.
  destruct (cf_tmpl f =? "$.init($,$,$)"); [discriminate T | discriminate].
Qed.

(* all_protected holds for a sequence that mixes forwarding and container functions *)
Example C42_all_protected_nonvacuous :
  all_protected cwrap_table [mkcall "basic_sub" [AB 2; AB 0; AB 1]; mkcall "setbasic_insert" [AS 0; AB 0];
                             mkcall "basic_str" [AB 0]; mkcall "basic_eq" [AB 0; AB 1]].
Proof. apply all_protected_check. vm_compute. reflexivity. Qed.
