(* C42 obligation: on the current table, for every core oracle, state and call: no function outside the listed ones lets an
   exception out. *)
From SE Require Import C42.CWrapSpec C42.CContainers C42.CWrapProofs C42.Gen_CWrap C42.CWrapTable.
Local Open Scope string_scope.
Theorem C42_table_no_escape :
  forall (core : oracle) (k : N) (st : state) (c : call) (f : cfun),
    find_cfun cwrap_table (c_fn c) = Some f ->
    mem_str (cf_name f) (known_escaping ++ unconfirmed_escaping) = false ->
    core_respects_nothrow core cwrap_table ->
    is_escape (fst (step core cwrap_table k st c)) = false.
Proof. intros core k st c f. exact (guarded_no_escape core cwrap_table k st c f cwrap_total_guarded). Qed.
Print Assumptions C42_table_no_escape.
