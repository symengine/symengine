(* C42 obligation: a CWRAPPER_BEGIN/END function returning CWRAPPER_OUTPUT_TYPE always answers with a code; a non-zero code leaves
   every handle untouched (for every table row of that shape, core oracle, state, arguments). *)
From SE Require Import C42.CWrapSpec C42.CContainers C42.CWrapProofs.
Local Open Scope string_scope.
Theorem C42_wrapped_outcome :
  forall (core : oracle) (f : cfun) (k : N) (st : state) (actuals : list arg),
    cf_wrap f = WFull -> cf_ret f = RCode ->
    let os := fwd_step core f k st actuals in
    (exists c, fst os = RetCode c /\ (c <> SYMENGINE_NO_EXCEPTION -> snd os = st))
    \/ fst os = Precond \/ fst os = Unmodelled.
Proof.
  intros core f k st actuals Hw Hr os. pattern os. apply fwd_step_cases; cbn [fst snd]; eauto.
  (* the early exits are the three alternatives as they stand; left: a delivered value, a translated exception *)
  - intros cargs v st' _ _ _. left. exists SYMENGINE_NO_EXCEPTION. unfold ok_outcome. rewrite Hr.
    split; [reflexivity | intros []; reflexivity].
  - intros. rewrite Hw. eauto.
Qed.
Print Assumptions C42_wrapped_outcome.
