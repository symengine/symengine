(* C42 -- laws of the container models of CWrapModel.v: lists (CVecBasic) and lists sorted by a
   strict weak order (CSetBasic = std::set, CMapBasicBasic = std::map under RCPBasicKeyLess).
   Everything is proved for an arbitrary comparator [lt] that is irreflexive and transitive on a
   carrier [P] and whose incomparability is transitive; CWrapProofs.v instantiates it with
   [expr_keyless] on well-formed expressions (theorems of C01/C02). *)
From SE Require Import C42.CWrapModel.
From Coq Require Import Lia Sorted.

Section Vec.
  Context {A : Type}.

  Lemma upd_nth_length : forall (l : list A) n x, length (upd_nth l n x) = length l.
  Proof. induction l; destruct n; cbn; intros; auto. Qed.

  Lemma nth_upd_nth_eq : forall (l : list A) n x, (n < length l)%nat -> nth_error (upd_nth l n x) n = Some x.
  Proof. induction l; destruct n; cbn; intros; try lia; auto. apply IHl. lia. Qed.

  Lemma nth_upd_nth_ne : forall (l : list A) n m x, n <> m -> nth_error (upd_nth l n x) m = nth_error l m.
  Proof. induction l; destruct n; destruct m; cbn; intros; try congruence; auto. Qed.

  Lemma upd_nth_out : forall (l : list A) n x, (length l <= n)%nat -> upd_nth l n x = l.
  Proof. induction l; destruct n; cbn; intros; auto; try lia. f_equal. apply IHl. lia. Qed.

  Lemma upd_nth_twice : forall (l : list A) n x y, upd_nth (upd_nth l n x) n y = upd_nth l n y.
  Proof. induction l; destruct n; cbn; intros; auto. f_equal. apply IHl. Qed.

  Lemma remove_nth_length : forall (l : list A) n, (n < length l)%nat -> length (remove_nth l n) = pred (length l).
  Proof.
    induction l; destruct n; cbn; intros; try lia; auto.
    rewrite IHl by lia. destruct l; cbn in *; lia.
  Qed.

  Lemma nth_remove_nth_lt : forall (l : list A) n m, (m < n)%nat -> nth_error (remove_nth l n) m = nth_error l m.
  Proof. induction l; destruct n; destruct m; cbn; intros; try lia; auto. apply IHl. lia. Qed.

  Lemma nth_remove_nth_ge : forall (l : list A) n m, (n <= m)%nat -> nth_error (remove_nth l n) m = nth_error l (S m).
  Proof.
    induction l as [|a l IH]; intros n m H.
    - destruct n; destruct m; reflexivity.
    - destruct n as [|n].
      + reflexivity.
      + destruct m as [|m]; [lia|]. cbn. apply IH. lia.
  Qed.

  Lemma nth_app_last : forall (l : list A) x, nth_error (l ++ [x]) (length l) = Some x.
  Proof. induction l; cbn; auto. Qed.

  Lemma nth_app_old : forall (l : list A) x n, (n < length l)%nat -> nth_error (l ++ [x]) n = nth_error l n.
  Proof. intros. apply nth_error_app1. assumption. Qed.
  Lemma Forall_upd_nth : forall (Q : A -> Prop) l n x, Forall Q l -> Q x -> Forall Q (upd_nth l n x).
  Proof.
    induction l as [|y r IH]; intros n x Hl Hx; destruct n; cbn; auto; inversion Hl; subst; constructor; auto.
  Qed.

  Lemma Forall_remove_nth : forall (Q : A -> Prop) l n, Forall Q l -> Forall Q (remove_nth l n).
  Proof.
    induction l as [|y r IH]; intros n Hl; destruct n; cbn; auto; inversion Hl; subst; auto.
  Qed.

  Lemma Forall_nth_error : forall {Q : A -> Prop} {l n x}, Forall Q l -> nth_error l n = Some x -> Q x.
  Proof.
    intros Q l n x Hl Hn. rewrite Forall_forall in Hl. apply Hl. eapply nth_error_In; eauto.
  Qed.

  Lemma nth_error_lt : forall {l : list A} {n x}, nth_error l n = Some x -> (n < length l)%nat.
  Proof. intros. apply nth_error_Some. congruence. Qed.
End Vec.

Section Ordered.
  Variable A : Type.
  Variable lt : A -> A -> bool.
  Variable P : A -> Prop.
  Definition equiv (x y : A) : bool := negb (lt x y) && negb (lt y x).

  Hypothesis lt_irrefl : forall x, P x -> lt x x = false.
  Hypothesis lt_trans : forall x y z, P x -> P y -> P z -> lt x y = true -> lt y z = true -> lt x z = true.
  Hypothesis equiv_trans : forall x y z, P x -> P y -> P z -> equiv x y = true -> equiv y z = true -> equiv x z = true.

  Lemma equiv_lt_l : forall x y, lt x y = true -> equiv x y = false.
  Proof. intros x y H. unfold equiv. rewrite H. reflexivity. Qed.
  Lemma equiv_lt_r : forall x y, lt y x = true -> equiv x y = false.
  Proof. intros x y H. unfold equiv. rewrite H. apply andb_false_r. Qed.
  Lemma equiv_intro : forall x y, lt x y = false -> lt y x = false -> equiv x y = true.
  Proof. intros x y H1 H2. unfold equiv. rewrite H1, H2. reflexivity. Qed.

  Lemma lt_asym : forall x y, P x -> P y -> lt x y = true -> lt y x = false.
  Proof.
    intros x y Px Py H. destruct (lt y x) eqn:E; auto.
    pose proof (lt_trans x y x Px Py Px H E). rewrite lt_irrefl in H0; auto.
  Qed.

  Lemma equiv_sym : forall x y, equiv x y = equiv y x.
  Proof. intros. unfold equiv. apply andb_comm. Qed.

  Lemma equiv_refl : forall x, P x -> equiv x x = true.
  Proof. intros. unfold equiv. rewrite lt_irrefl; auto. Qed.

  (* a strict weak order: the order respects incomparability *)
  Lemma lt_equiv_l : forall x y z, P x -> P y -> P z -> equiv x y = true -> lt x z = true -> lt y z = true.
  Proof.
    intros x y z Px Py Pz E L.
    destruct (lt y z) eqn:L1; auto.
    destruct (lt z y) eqn:L2.
    - rewrite (equiv_lt_l _ _ (lt_trans x z y Px Pz Py L L2)) in E. discriminate.
    - pose proof (equiv_trans x y z Px Py Pz E (equiv_intro _ _ L1 L2)) as H.
      rewrite (equiv_lt_l _ _ L) in H. discriminate.
  Qed.
  Lemma lt_equiv_r : forall x y z, P x -> P y -> P z -> equiv x y = true -> lt z x = true -> lt z y = true.
  Proof.
    intros x y z Px Py Pz E L.
    destruct (lt z y) eqn:L1; auto.
    destruct (lt y z) eqn:L2.
    - rewrite (equiv_lt_r _ _ (lt_trans y z x Py Pz Px L2 L)) in E. discriminate.
    - rewrite equiv_sym in E. pose proof (equiv_trans z y x Pz Py Px (equiv_intro _ _ L1 L2) E) as H.
      rewrite (equiv_lt_l _ _ L) in H. discriminate.
  Qed.

  Definition sorted (s : list A) : Prop := StronglySorted (fun a b => lt a b = true) s.

  (* an element below (or equivalent to) a lower bound of r is equivalent to nothing in r *)
  Lemma no_equiv_above : forall y z r, P y -> P z -> Forall P r -> Forall (fun w => lt z w = true) r ->
    lt y z = true \/ equiv y z = true -> existsb (equiv y) r = false.
  Proof.
    intros y z r Py Pz Pr Hz Hyz. apply not_true_is_false. intro H.
    apply existsb_exists in H. destruct H as [w [Hw Ew]]. rewrite Forall_forall in Pr, Hz.
    assert (Lyw : lt y w = true).
    { destruct Hyz as [L|E].
      - apply (lt_trans y z w); auto.
      - apply (lt_equiv_l z y w); auto. rewrite equiv_sym. exact E. }
    rewrite (equiv_lt_l _ _ Lyw) in Ew. discriminate.
  Qed.

  (* insertion keeps whatever holds of the new element and of every old one: the carrier, a lower bound *)
  Lemma set_insert_Forall : forall (Q : A -> Prop) x s, Q x -> Forall Q s -> Forall Q (snd (set_insert lt x s)).
  Proof.
    induction s as [|z r IH]; cbn; intros Qx Hs.
    - constructor; assumption.
    - inversion Hs; subst. destruct (lt z x); [|destruct (lt x z)]; cbn; auto.
  Qed.

  Theorem set_insert_sorted : forall x s, P x -> Forall P s -> sorted s -> sorted (snd (set_insert lt x s)).
  Proof using lt_trans.
    induction s as [|z r IH]; cbn; intros Px Hs S.
    - repeat constructor.
    - inversion S as [|? ? Sr Hz]; subst. inversion Hs as [|? ? Pz Pr]; subst.
      destruct (lt z x) eqn:L1; cbn.
      + constructor; [apply IH; auto | apply set_insert_Forall; assumption].
      + destruct (lt x z) eqn:L2; cbn; auto.
        constructor; auto. constructor; auto.
        rewrite Forall_forall in *. intros y Hy. apply (lt_trans x z y); auto.
  Qed.

  (* find on a sorted list = membership up to incomparability *)
  Theorem set_find_spec : forall x s, P x -> Forall P s -> sorted s -> set_find lt x s = existsb (equiv x) s.
  Proof.
    induction s as [|z r IH]; cbn; intros Px Hs S; auto.
    inversion S as [|? ? Sr Hz]; subst. inversion Hs as [|? ? Pz Pr]; subst.
    destruct (lt z x) eqn:L1.
    - rewrite IH, (equiv_lt_r _ _ L1) by auto. reflexivity.
    - destruct (lt x z) eqn:L2.
      + rewrite (equiv_lt_l _ _ L2), (no_equiv_above x z r) by auto. reflexivity.
      + rewrite (equiv_intro _ _ L2 L1). reflexivity.
  Qed.

  (* insert is idempotent: the second insertion of the same element reports 0 and changes nothing *)
  Theorem set_insert_idem : forall x s, P x ->
    set_insert lt x (snd (set_insert lt x s)) = (false, snd (set_insert lt x s)).
  Proof using lt_irrefl.
    induction s as [|z r IH]; cbn; intros Px.
    - rewrite lt_irrefl by auto. reflexivity.
    - destruct (lt z x) eqn:L1; cbn.
      + rewrite L1. rewrite IH by auto. reflexivity.
      + destruct (lt x z) eqn:L2; cbn.
        * rewrite lt_irrefl by auto. reflexivity.
        * rewrite L1, L2. reflexivity.
  Qed.

  (* the return value of insert: 1 exactly when no equivalent element was stored *)
  Theorem set_insert_fst : forall x s, P x -> Forall P s -> sorted s ->
    fst (set_insert lt x s) = negb (set_find lt x s).
  Proof using Type.
    induction s as [|z r IH]; cbn; intros Px Hs S; auto.
    inversion S; subst. inversion Hs; subst.
    destruct (lt z x) eqn:L1; cbn; auto.
    destruct (lt x z) eqn:L2; cbn; auto.
  Qed.

  Theorem set_insert_length : forall x s,
    length (snd (set_insert lt x s)) = (length s + (if fst (set_insert lt x s) then 1 else 0))%nat.
  Proof.
    induction s as [|z r IH]; cbn; auto.
    destruct (lt z x); cbn.
    - rewrite IH. lia.
    - destruct (lt x z); cbn; lia.
  Qed.

  (* membership after insert *)
  Theorem set_find_insert : forall x y s, P x -> P y -> Forall P s -> sorted s ->
    set_find lt y (snd (set_insert lt x s)) = equiv y x || set_find lt y s.
  Proof using lt_trans equiv_trans.
    intros x y s Px Py Hs S.
    rewrite set_find_spec by (auto using set_insert_Forall, set_insert_sorted).
    rewrite set_find_spec by auto.
    clear S. induction s as [|z r IH]; cbn.
    - rewrite orb_false_r. reflexivity.
    - inversion Hs as [|? ? Pz Pr]; subst.
      destruct (lt z x) eqn:L1; cbn.
      + rewrite IH by auto. destruct (equiv y x), (equiv y z); reflexivity.
      + destruct (lt x z) eqn:L2; cbn; auto.
        (* x equivalent to z: equiv y x = equiv y z *)
        destruct (equiv y x) eqn:E1; cbn; auto.
        rewrite (equiv_trans y x z Py Px Pz E1 (equiv_intro _ _ L2 L1)). reflexivity.
  Qed.

  Lemma set_erase_Forall : forall (Q : A -> Prop) x s, Forall Q s -> Forall Q (snd (set_erase lt x s)).
  Proof.
    induction s as [|z r IH]; cbn; intros Hs; [exact Hs|].
    inversion Hs; subst. destruct (lt z x); [|destruct (lt x z)]; cbn; auto.
  Qed.

  Theorem set_erase_sorted : forall x s, sorted s -> sorted (snd (set_erase lt x s)).
  Proof.
    induction s as [|z r IH]; cbn; intros S.
    - exact S.
    - inversion S as [|? ? Sr Hz]; subst.
      destruct (lt z x); cbn.
      + constructor; [apply IH; exact Sr | apply set_erase_Forall; exact Hz].
      + destruct (lt x z); cbn; [exact S | exact Sr].
  Qed.

  (* erase reports whether an equivalent element was stored *)
  Theorem set_erase_fst : forall x s, fst (set_erase lt x s) = set_find lt x s.
  Proof.
    induction s as [|z r IH]; cbn; [reflexivity|].
    destruct (lt z x); cbn; [exact IH|]. destruct (lt x z); reflexivity.
  Qed.

  (* afterwards no equivalent element is stored; the others are untouched *)
  Theorem set_find_erase : forall x y s, P x -> P y -> Forall P s -> sorted s ->
    set_find lt y (snd (set_erase lt x s)) = negb (equiv y x) && set_find lt y s.
  Proof using lt_trans equiv_trans.
    intros x y s Px Py Hs S.
    rewrite set_find_spec by (auto using set_erase_Forall, set_erase_sorted).
    rewrite set_find_spec by auto.
    induction s as [|z r IH].
    - cbn. rewrite andb_false_r. reflexivity.
    - inversion Hs as [|? ? Pz Pr]; subst. inversion S as [|? ? Sr Hz]; subst.
      cbn [set_erase].
      destruct (lt z x) eqn:L1.
      + cbn [snd existsb]. rewrite IH by assumption.
        destruct (equiv y z) eqn:E; [|reflexivity].
        (* y ~ z < x *)
        rewrite equiv_sym in E. rewrite (equiv_lt_l _ _ (lt_equiv_l z y x Pz Py Px E L1)). reflexivity.
      + destruct (lt x z) eqn:L2; cbn [snd existsb].
        * destruct (equiv y x) eqn:E; [|reflexivity].
          (* y ~ x < z <= r *)
          rewrite equiv_sym in E. pose proof (lt_equiv_l x y z Px Py Pz E L2) as Lyz.
          rewrite (equiv_lt_l _ _ Lyz), (no_equiv_above y z r) by auto. reflexivity.
        * (* x ~ z, erased *)
          pose proof (equiv_intro _ _ L2 L1) as Exz.
          destruct (equiv y x) eqn:E; cbn [negb andb].
          -- apply (no_equiv_above y z r); auto. right. exact (equiv_trans y x z Py Px Pz E Exz).
          -- destruct (equiv y z) eqn:E2; [|reflexivity].
             rewrite equiv_sym in Exz. rewrite (equiv_trans y z x Py Pz Px E2 Exz) in E. discriminate.
  Qed.

  Variable B : Type.

  (* the keys of a map are a set, and operator[] inserts into it *)
  Lemma map_set_keys : forall k (v : B) m, map fst (map_set lt k v m) = snd (set_insert lt k (map fst m)).
  Proof.
    induction m as [|[k' v'] r IH]; cbn; [reflexivity|].
    destruct (lt k' k); [|destruct (lt k k')]; cbn; congruence.
  Qed.

  Lemma map_set_vals : forall (Q : B -> Prop) k v m, Q v -> Forall Q (map snd m) -> Forall Q (map snd (map_set lt k v m)).
  Proof.
    induction m as [|[k' v'] r IH]; cbn; intros Qv Hm.
    - constructor; assumption.
    - inversion Hm; subst. destruct (lt k' k); [|destruct (lt k k')]; cbn; auto.
  Qed.

  (* get after set: the new value under every equivalent key, the old binding elsewhere *)
  Theorem map_get_set : forall k k' (v : B) m, P k -> P k' -> Forall P (map fst m) -> sorted (map fst m) ->
    map_get lt k' (map_set lt k v m) = if equiv k' k then Some v else map_get lt k' m.
  Proof using lt_irrefl lt_trans equiv_trans.
    induction m as [|[z w] r IH]; cbn; intros Pk Pk' Hs S.
    - unfold equiv. destruct (lt k k'); cbn; [rewrite andb_false_r; reflexivity | destruct (lt k' k); reflexivity].
    - inversion S as [|? ? Sr Hz]; subst. inversion Hs as [|? ? Pz Pr]; subst.
      destruct (lt z k) eqn:L1; cbn.
      + destruct (lt z k') eqn:L2; [apply IH; auto|].
        (* k' <= z < k : k' not equivalent to k *)
        assert (Lk : lt k' k = true).
        { destruct (lt k' z) eqn:L3; [apply (lt_trans k' z k); assumption|].
          apply (lt_equiv_l z k' k); auto using equiv_intro. }
        rewrite (equiv_lt_l _ _ Lk). reflexivity.
      + destruct (lt k z) eqn:L2; cbn.
        * (* inserted in front *)
          destruct (lt k k') eqn:L3; [rewrite (equiv_lt_r _ _ L3); reflexivity|].
          destruct (lt k' k) eqn:L4; [|rewrite (equiv_intro _ _ L4 L3); reflexivity].
          pose proof (lt_trans k' k z Pk' Pk Pz L4 L2) as Lz.
          rewrite (equiv_lt_l _ _ L4), (lt_asym k' z Pk' Pz Lz), Lz. reflexivity.
        * (* value replaced under the stored key z ~ k *)
          pose proof (equiv_intro _ _ L1 L2) as E.
          destruct (lt z k') eqn:L3; [rewrite (equiv_lt_r _ _ (lt_equiv_l z k k' Pz Pk Pk' E L3)); reflexivity|].
          destruct (lt k' z) eqn:L4; [rewrite (equiv_lt_l _ _ (lt_equiv_r z k k' Pz Pk Pk' E L4)); reflexivity|].
          rewrite (equiv_trans k' z k Pk' Pz Pk (equiv_intro _ _ L4 L3) E). reflexivity.
  Qed.

  Theorem map_set_length : forall k (v : B) m, P k -> Forall P (map fst m) -> sorted (map fst m) ->
    length (map_set lt k v m) = (length m + (match map_get lt k m with Some _ => 0 | None => 1 end))%nat.
  Proof using Type.
    induction m as [|[z w] r IH]; cbn; intros Pk Hs S; auto.
    inversion S as [|? ? Sr Hz]; subst. inversion Hs as [|? ? Pz Pr]; subst.
    destruct (lt z k) eqn:L1; cbn.
    - rewrite IH by auto. lia.
    - destruct (lt k z) eqn:L2; cbn; lia.
  Qed.
End Ordered.
