(* C42 -- the sweeps over the table that the translator reads out of the CURRENT cwrapper.cpp (Gen_CWrap.v) which
   more than one theorem of P_*.v rests on: finite tables, evaluated completely by the kernel (vm_compute). *)
From SE Require Import C42.CWrapSpec C42.CWrapProofs C42.Gen_CWrap.
Local Open Scope string_scope.

(* every extern "C" function is protected by a try block or calls only non-throwing functions --
   EXCEPT the listed ones *)
Theorem cwrap_total_guarded : forallb total_or_listed cwrap_table = true.
Proof. vm_compute. reflexivity. Qed.

(* the unguarded statement is false: a function outside any try block whose callee throws lets the exception
   out -- witness in the model (replayed on the library by the check: init of a lambda visitor with an
   expression whose symbol is not among the arguments) *)
Definition throwing_core : oracle := fun _ _ _ => ErrExn EXN_SYMENGINE.

(* the plumbing read from the code (destination, forwarded C++ expression, argument order) is the plumbing of the
   driver's independent C++-API mirror; no deviation is listed *)
Definition known_deviations : list string := [].
Theorem cwrap_agrees : forallb (agrees cwrap_table) expected_table = true.
Proof. vm_compute. reflexivity. Qed.
