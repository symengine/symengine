(* C42 -- what the theorems of P_*.v about the wrapper model (CWrapModel.v) are proved from, for EVERY table, core
   oracle, state and call: [fwd_step] is read once, in [fwd_step_cases] (no_escape, the shape of a protected call's
   outcome and the invariant are instances); agreement with the C++ API value read off an expected row; the thirteen
   container functions are read once, in [hand_step_post]; the indexed accessors as equations on every index. *)
From SE Require Import C42.CWrapSpec C42.CContainers Expr.CmpProofs Expr.HashProofs.
From Coq Require Import Lia.
Local Open Scope string_scope.

Lemma vlt_irrefl : forall x, val_wf x -> vlt x x = false.
Proof. intros x H. apply (proj1 keyless_strict_weak_order). exact H. Qed.

Lemma vlt_trans : forall x y z, val_wf x -> val_wf y -> val_wf z -> vlt x y = true -> vlt y z = true -> vlt x z = true.
Proof. intros x y z Hx Hy Hz. apply (proj1 (proj2 keyless_strict_weak_order)); assumption. Qed.

Lemma vequiv_eqb : forall x y, val_wf x -> val_wf y -> (equiv val vlt x y = true <-> expr_eqb (vex x) (vex y) = true).
Proof.
  intros x y Hx Hy. unfold equiv, vlt.
  rewrite <- (proj2 (proj2 keyless_strict_weak_order) (vex x) (vex y) Hx Hy), andb_true_iff, !negb_true_iff.
  reflexivity.
Qed.

Lemma vequiv_trans : forall x y z, val_wf x -> val_wf y -> val_wf z ->
  equiv val vlt x y = true -> equiv val vlt y z = true -> equiv val vlt x z = true.
Proof.
  intros x y z Hx Hy Hz. rewrite !vequiv_eqb by assumption.
  exact (proj2 (proj2 eq_equivalence) (vex x) (vex y) (vex z) Hx Hy Hz).
Qed.

(* the hypotheses of the section theorems of CContainers, at [vlt] on [val_wf] *)
#[export] Hint Resolve vlt_irrefl vlt_trans vequiv_trans : vord.

(* the value of the forwarded C++ expression: a plain copy, or a call of the core ([spec_call] has the same on the
   expected row) *)
Definition fwd_result (core : oracle) (tmpl : string) (k : N) (cargs : list cval) : res cval :=
  if tmpl =? "$" then match cargs with [c] => Ok c | _ => ErrFuel end else core k tmpl cargs.

Lemma fwd_result_exn : forall core tmpl k cargs cls,
  fwd_result core tmpl k cargs = ErrExn cls -> core k tmpl cargs = ErrExn cls.
Proof.
  unfold fwd_result. intros core tmpl k cargs cls H.
  destruct (tmpl =? "$"); [destruct cargs as [|c [|]]; discriminate | exact H].
Qed.

(* every way out of [fwd_step]: not modelled, a violated type precondition, a code returned before the C++ call (guard,
   zero test), the value of the C++ expression delivered (in place, or by a [store]), an exception met by the wrapper *)
Lemma fwd_step_cases : forall (Q : outcome * state -> Prop) core f k st actuals,
  Q (Unmodelled, st) -> Q (Precond, st) -> (forall c, Q (RetCode c, st)) ->
  (forall cargs v st', resolve_all st actuals (cf_args f) = Some cargs ->
     fwd_result core (cf_tmpl f) k cargs = Ok v ->
     st' = st \/ (exists a, store st a v = Some st') -> Q (ok_outcome f v, st')) ->
  (forall cargs cls, fwd_result core (cf_tmpl f) k cargs = ErrExn cls ->
     Q (match cf_wrap f with WFull => RetCode (code_of_exn cls) | WNull => RetStr None | WNone => Escape cls end, st)) ->
  Q (fwd_step core f k st actuals).
Proof.
  intros Q core f k st actuals Hu Hp Hc Hok Hex. unfold fwd_step.
  destruct (negb (actuals_match _ _)); [exact Hu|].
  destruct (negb (all_hold guard_holds _ _ _)); [apply Hc|].
  destruct (negb (all_hold class_holds _ _ _)); [exact Hp|].
  destruct (zguard_fires _ _); [apply Hc|].
  destruct (resolve_all _ _ _) as [cargs|] eqn:Er; [|exact Hu].
  fold (fwd_result core (cf_tmpl f) k cargs).
  destruct (fwd_result core (cf_tmpl f) k cargs) as [v| | |cls] eqn:Ev; try exact Hu.
  - destruct (cf_out f) as [i| |]; [destruct (nth_error actuals i) as [a|]; [destruct (store st a v) eqn:Es|]|..];
      try exact Hu; eapply Hok; eauto.
  - specialize (Hex cargs cls Ev). destruct (cf_wrap f); exact Hex.
Qed.

Lemma find_cfun_in : forall table name f, find_cfun table name = Some f -> In f table /\ cf_name f = name.
Proof.
  intros table name f H. apply find_some in H. destruct H as [H1 H2].
  split; [exact H1 | apply String.eqb_eq; exact H2].
Qed.

Lemma ok_outcome_no_escape : forall f v, is_escape (ok_outcome f v) = false.
Proof.
  intros f v. unfold ok_outcome.
  destruct (cf_ret f); try reflexivity; destruct (cf_out f); try reflexivity; destruct v; reflexivity.
Qed.

Theorem fwd_no_escape : forall core table f k st actuals,
  In f table -> protected f = true -> core_respects_nothrow core table ->
  is_escape (fst (fwd_step core f k st actuals)) = false.
Proof.
  intros core table f k st actuals Hin Hp Hc.
  apply (fwd_step_cases (fun os => is_escape (fst os) = false)); try reflexivity.
  - intros. apply ok_outcome_no_escape.
  - intros cargs cls Ev. destruct (cf_wrap f) eqn:Ew; try reflexivity.
    destruct (Hc f Hin Ew Hp k cargs cls (fwd_result_exn _ _ _ _ _ Ev)).
Qed.

(* the state invariant under stores; what is read from a handle comes from [Forall_nth_error] on
   the projections [inv_b] .. [inv_m] *)
Lemma set_b_inv : forall st i v, state_inv st -> val_wf v -> state_inv (set_b st i v).
Proof. intros st i v [H1 H2 H3 H4] Hv. constructor; cbn; auto. apply Forall_upd_nth; auto. Qed.
Lemma set_v_inv : forall st i l, state_inv st -> Forall val_wf l -> state_inv (set_v st i l).
Proof. intros st i l [H1 H2 H3 H4] Hv. constructor; cbn; auto. apply Forall_upd_nth; auto. Qed.
Lemma set_s_inv : forall st i l, state_inv st -> set_ok l -> state_inv (set_s st i l).
Proof. intros st i l [H1 H2 H3 H4] Hv. constructor; cbn; auto. apply Forall_upd_nth; auto. Qed.
Lemma set_m_inv : forall st i l, state_inv st -> map_ok l -> state_inv (set_m st i l).
Proof. intros st i l [H1 H2 H3 H4] Hv. constructor; cbn; auto. apply Forall_upd_nth; auto. Qed.

Lemma store_inv : forall st a v st', state_inv st -> cval_ok v -> store st a v = Some st' -> state_inv st'.
Proof.
  intros st a v st' Hi Hv Hs. unfold store in Hs.
  destruct a; destruct v; try discriminate;
    match type of Hs with (if ?b then _ else _) = _ => destruct b; [|discriminate] end;
    injection Hs as <-; cbn in Hv.
  - apply set_b_inv; auto.
  - apply set_v_inv; auto.
  - apply set_s_inv; auto.
  - apply set_m_inv; auto.
Qed.

Lemma resolve_ok : forall st a c, state_inv st -> resolve st a = Some c -> cval_ok c.
Proof.
  intros st a c Hi Hr. destruct a; cbn in Hr; try (injection Hr as <-; exact I).
  - destruct (nth_error (s_b st) i) eqn:E; [injection Hr as <-|discriminate]. exact (Forall_nth_error (inv_b _ Hi) E).
  - destruct (nth_error (s_v st) i) eqn:E; [injection Hr as <-|discriminate]. exact (Forall_nth_error (inv_v _ Hi) E).
  - destruct (nth_error (s_s st) i) eqn:E; [injection Hr as <-|discriminate]. exact (Forall_nth_error (inv_s _ Hi) E).
  - destruct (nth_error (s_m st) i) eqn:E; [injection Hr as <-|discriminate]. exact (Forall_nth_error (inv_m _ Hi) E).
Qed.

Lemma resolve_all_ok : forall st actuals idx cargs,
  state_inv st -> resolve_all st actuals idx = Some cargs -> Forall cval_ok cargs.
Proof.
  intros st actuals idx cargs Hi. revert cargs. induction idx as [|i r IH]; cbn; intros cargs Hr.
  - injection Hr as <-. constructor.
  - destruct (nth_error actuals i) as [a|]; [|discriminate].
    destruct (resolve st a) eqn:E; [|discriminate]. destruct (resolve_all st actuals r); [|discriminate].
    injection Hr as <-. constructor; [exact (resolve_ok _ _ _ Hi E) | apply IH; reflexivity].
Qed.

Lemma fwd_result_ok : forall core tmpl k st actuals idx cargs v,
  core_ok core -> state_inv st -> resolve_all st actuals idx = Some cargs ->
  fwd_result core tmpl k cargs = Ok v -> cval_ok v.
Proof.
  unfold fwd_result. intros core tmpl k st actuals idx cargs v Hc Hi Er Ev.
  destruct (tmpl =? "$"); [|exact (Hc _ _ _ _ Ev)].
  destruct cargs as [|c [|]]; try discriminate. injection Ev as <-.
  exact (Forall_inv (resolve_all_ok _ _ _ _ Hi Er)).
Qed.

Theorem fwd_step_inv : forall core f k st actuals,
  core_ok core -> state_inv st -> state_inv (snd (fwd_step core f k st actuals)).
Proof.
  intros core f k st actuals Hc Hi. apply (fwd_step_cases (fun os => state_inv (snd os))); auto.
  intros cargs v st' Er Ev [->|[a Es]]; [exact Hi|].
  exact (store_inv _ _ _ _ Hi (fwd_result_ok _ _ _ _ _ _ _ _ Hc Hi Er Ev) Es).
Qed.

(* an exception is never reported as success *)
Lemma code_of_exn_nonzero : forall cls, code_of_exn cls <> SYMENGINE_NO_EXCEPTION.
Proof.
  intro cls. unfold code_of_exn. repeat destruct (_ =? _)%N; discriminate.
Qed.

Lemma natlist_eqb_eq : forall l1 l2, natlist_eqb l1 l2 = true -> l1 = l2.
Proof.
  induction l1 as [|x r IH]; destruct l2 as [|y s]; cbn; intro H; try discriminate; [reflexivity|].
  apply andb_true_iff in H. destruct H as [H1 H2]. apply Nat.eqb_eq in H1. subst. f_equal. apply IH. exact H2.
Qed.
Lemma outk_eqb_eq : forall a b, outk_eqb a b = true -> a = b.
Proof. destruct a, b; cbn; intro H; try discriminate; try reflexivity. apply Nat.eqb_eq in H. subst. reflexivity. Qed.

Lemma agrees_find : forall table e f,
  agrees table e = true -> find_cfun table (ex_name e) = Some f -> row_agrees f e = true.
Proof. unfold agrees. intros table e f H Hf. rewrite Hf in H. exact H. Qed.

Theorem agrees_sem : forall core f e k st actuals,
  row_agrees f e = true ->
  actuals_match (cf_params f) actuals = true ->
  all_hold guard_holds st actuals (cf_guards f) = true ->
  all_hold class_holds st actuals (cf_casts f) = true ->
  zguard_fires actuals (cf_zguards f) = None ->
  match spec_call core e k st actuals with
  | Some (Ok v) =>
      match spec_store e st actuals v with
      | Some st' => fwd_step core f k st actuals = (ok_outcome f v, st')       (* success: the API value, where expected *)
      | None => fst (fwd_step core f k st actuals) = Unmodelled
      end
  | Some (ErrExn cls) =>                                                         (* the API throws: state untouched *)
      fwd_step core f k st actuals =
        (match cf_wrap f with WFull => RetCode (code_of_exn cls) | WNull => RetStr None | WNone => Escape cls end, st)
  | _ => fst (fwd_step core f k st actuals) = Unmodelled
  end.
Proof.
  intros core f e k st actuals Hr Ha Hg Hc Hz.
  unfold row_agrees in Hr. apply andb_true_iff in Hr. destruct Hr as [Hr H3].
  apply andb_true_iff in Hr. destruct Hr as [H1 H2].
  apply outk_eqb_eq in H1. apply String.eqb_eq in H2. apply natlist_eqb_eq in H3.
  unfold spec_call, spec_store, fwd_step. rewrite Ha, Hg, Hc, Hz. cbn [negb]. rewrite <- H1, <- H2, <- H3.
  destruct (resolve_all st actuals (cf_args f)) as [cargs|]; [|reflexivity].
  fold (fwd_result core (cf_tmpl f) k cargs).
  destruct (fwd_result core (cf_tmpl f) k cargs) as [v| | |cls]; try reflexivity.
  - destruct (cf_out f); try reflexivity.
    destruct (nth_error actuals i); [|reflexivity].
    destruct (store st a v); reflexivity.
  - destruct (cf_wrap f); reflexivity.
Qed.

Lemma v_insert_ok : forall v s, val_wf v -> set_ok s -> set_ok (snd (set_insert vlt v s)).
Proof.
  intros v s Hv [Hs1 Hs2].
  split; [apply set_insert_Forall | apply (set_insert_sorted val vlt val_wf)]; eauto with vord.
Qed.
Lemma v_erase_ok : forall v s, set_ok s -> set_ok (snd (set_erase vlt v s)).
Proof. intros v s [Hs1 Hs2]. split; [apply set_erase_Forall | apply set_erase_sorted]; assumption. Qed.
Lemma v_map_set_ok : forall k v m, val_wf k -> val_wf v -> map_ok m -> map_ok (map_set vlt k v m).
Proof.
  intros k v m Hk Hv [H1 [H2 H3]]. unfold map_ok. rewrite map_set_keys.
  split; [apply set_insert_Forall; assumption|]. split; [apply map_set_vals; assumption|].
  apply (set_insert_sorted val vlt val_wf); eauto with vord.
Qed.
Lemma v_map_get_ok : forall k m x, map_ok m -> map_get vlt k m = Some x -> val_wf x.
Proof.
  intros k m x [_ [H2 _]]. induction m as [|[k' v'] r IH]; cbn; intro H; [discriminate|].
  inversion H2; subst.
  destruct (vlt k' k); [apply IH; auto|].
  destruct (vlt k k'); [discriminate|]. injection H as <-. assumption.
Qed.

(* what every container function guarantees *)
Definition hand_post (st : state) (os : outcome * state) : Prop :=
  is_escape (fst os) = false /\ (state_inv st -> state_inv (snd os)).

Lemma post_same : forall st o, is_escape o = false -> hand_post st (o, st).
Proof. intros st o H. split; [exact H | exact (fun Hi => Hi)]. Qed.

Lemma post_if : forall st (b : bool) x y, hand_post st x -> hand_post st y -> hand_post st (if b then x else y).
Proof. intros st b x y Hx Hy. destruct b; assumption. Qed.

(* a way out that leaves the state as it was *)
Ltac same := apply post_same; reflexivity.

(* The body of a container function matches [actuals] against a fixed list of constructors; the kernel sees nested
   matches, one per list cell and one per head.  Splitting one cell and its head at a time, 7 of the 8 heads are
   already at the default branch [(Unmodelled, st)], so n arguments cost 8n cases (a nested intro pattern: 8^n). *)
Ltac next_arg actuals := destruct actuals as [|[] actuals]; try same.

Theorem hand_step_post : forall name st actuals, hand_post st (hand_step name st actuals).
Proof.
  intros name st actuals. unfold hand_step.
  repeat apply post_if; try same.
  - unfold h_vec_push_back. do 3 next_arg actuals.
    destruct (nth_error (s_v st) _) as [l|] eqn:El; [|same].
    destruct (nth_error (s_b st) _) as [v|] eqn:Ev; [|same].
    split; [reflexivity|intro Hi]. apply set_v_inv; [exact Hi|]. apply Forall_app.
    split; [exact (Forall_nth_error (inv_v _ Hi) El) | constructor; [exact (Forall_nth_error (inv_b _ Hi) Ev) | constructor]].
  - unfold h_vec_get. do 4 next_arg actuals.
    destruct (nth_error (s_v st) _) as [l|] eqn:El; [|same].
    apply post_if; [same|]. apply post_if; [same|]. apply post_if; [same|].
    destruct (nth_error l _) as [x|] eqn:Ex; [|same].
    split; [reflexivity|intro Hi]. apply set_b_inv; [exact Hi|].
    exact (Forall_nth_error (Forall_nth_error (inv_v _ Hi) El) Ex).
  - unfold h_vec_set. do 4 next_arg actuals.
    destruct (nth_error (s_v st) _) as [l|] eqn:El; [|same].
    destruct (nth_error (s_b st) _) as [v|] eqn:Ev; [|same].
    apply post_if; [same|]. apply post_if; [same|]. apply post_if; [|same].
    split; [reflexivity|intro Hi]. apply set_v_inv; [exact Hi|].
    apply Forall_upd_nth; [exact (Forall_nth_error (inv_v _ Hi) El) | exact (Forall_nth_error (inv_b _ Hi) Ev)].
  - unfold h_vec_erase. do 3 next_arg actuals.
    destruct (nth_error (s_v st) _) as [l|] eqn:El; [|same].
    apply post_if; [same|]. apply post_if; [same|]. apply post_if; [|same].
    split; [reflexivity|intro Hi]. apply set_v_inv; [exact Hi|].
    apply Forall_remove_nth. exact (Forall_nth_error (inv_v _ Hi) El).
  - unfold h_vec_size. do 2 next_arg actuals. destruct (nth_error (s_v st) _); same.
  - unfold h_set_insert. do 3 next_arg actuals.
    destruct (nth_error (s_s st) _) as [s|] eqn:Es; [|same].
    destruct (nth_error (s_b st) _) as [v|] eqn:Ev; [|same].
    split; [reflexivity|intro Hi]. apply set_s_inv; [exact Hi|].
    apply v_insert_ok; [exact (Forall_nth_error (inv_b _ Hi) Ev) | exact (Forall_nth_error (inv_s _ Hi) Es)].
  - unfold h_set_get. do 4 next_arg actuals.
    destruct (nth_error (s_s st) _) as [s|] eqn:Es; [|same].
    apply post_if; [same|]. apply post_if; [same|].
    destruct (nth_error s _) as [x|] eqn:Ex; [|same].
    split; [reflexivity|intro Hi]. apply set_b_inv; [exact Hi|].
    exact (Forall_nth_error (proj1 (Forall_nth_error (inv_s _ Hi) Es)) Ex).
  - unfold h_set_find. do 3 next_arg actuals. destruct (nth_error (s_s st) _); [|same]. destruct (nth_error (s_b st) _); same.
  - unfold h_set_erase. do 3 next_arg actuals.
    destruct (nth_error (s_s st) _) as [s|] eqn:Es; [|same].
    destruct (nth_error (s_b st) _) as [v|]; [|same].
    split; [reflexivity|intro Hi]. apply set_s_inv; [exact Hi|].
    apply v_erase_ok. exact (Forall_nth_error (inv_s _ Hi) Es).
  - unfold h_set_size. do 2 next_arg actuals. destruct (nth_error (s_s st) _); same.
  - unfold h_map_insert. do 4 next_arg actuals.
    destruct (nth_error (s_m st) _) as [m|] eqn:Em; [|same].
    destruct (nth_error (s_b st) i0) as [key|] eqn:Ek; [|same].
    destruct (nth_error (s_b st) i1) as [v|] eqn:Ev; [|same].
    split; [reflexivity|intro Hi]. apply set_m_inv; [exact Hi|].
    apply v_map_set_ok; [exact (Forall_nth_error (inv_b _ Hi) Ek) | exact (Forall_nth_error (inv_b _ Hi) Ev)
                        | exact (Forall_nth_error (inv_m _ Hi) Em)].
  - unfold h_map_get. do 4 next_arg actuals.
    destruct (nth_error (s_m st) _) as [m|] eqn:Em; [|same].
    destruct (nth_error (s_b st) _) as [key|]; [|same].
    apply post_if; [same|]. destruct (map_get vlt key m) as [x|] eqn:Ex; [|same].
    split; [reflexivity|intro Hi]. apply set_b_inv; [exact Hi|].
    exact (v_map_get_ok _ _ _ (Forall_nth_error (inv_m _ Hi) Em) Ex).
  - unfold h_map_size. do 2 next_arg actuals. destruct (nth_error (s_m st) _); same.
Qed.

Theorem no_escape : forall core table k st c f,
  find_cfun table (c_fn c) = Some f -> protected f = true -> core_respects_nothrow core table ->
  is_escape (fst (step core table k st c)) = false.
Proof.
  intros core table k st c f Hf Hp Hc. unfold step. rewrite Hf.
  destruct (is_hand_modelled (c_fn c)); [apply hand_step_post|].
  destruct (cf_tmpl f =? ""); [reflexivity|].
  exact (fwd_no_escape core table f k st _ (proj1 (find_cfun_in _ _ _ Hf)) Hp Hc).
Qed.

(* a table that passes the sweep [forallb total_or_listed]: whatever is not listed is protected *)
Theorem guarded_no_escape : forall core table k st c f,
  forallb total_or_listed table = true ->
  find_cfun table (c_fn c) = Some f ->
  mem_str (cf_name f) (known_escaping ++ unconfirmed_escaping) = false ->
  core_respects_nothrow core table ->
  is_escape (fst (step core table k st c)) = false.
Proof.
  intros core table k st c f G Hf Hl Hc. apply (no_escape core table k st c f Hf); [|exact Hc].
  pose proof (proj1 (forallb_forall _ _) G f (proj1 (find_cfun_in _ _ _ Hf))) as Gf.
  unfold mem_str in Hl. rewrite existsb_app in Hl. apply orb_false_iff in Hl. destruct Hl as [L1 L2].
  unfold total_or_listed, mem_str in Gf. rewrite L1, L2, !orb_false_r in Gf. exact Gf.
Qed.

(* whole call sequences: when every function called is protected, no outcome of the run is an escape *)
Definition all_protected (table : list cfun) (cs : list call) : Prop :=
  forall c, In c cs -> exists f, find_cfun table (c_fn c) = Some f /\ protected f = true.

Lemma all_protected_check : forall table cs,
  forallb (fun c => match find_cfun table (c_fn c) with Some f => protected f | None => false end) cs = true ->
  all_protected table cs.
Proof.
  intros table cs H c Hc. apply (proj1 (forallb_forall _ _) H) in Hc.
  destruct (find_cfun table (c_fn c)) as [f|]; [|discriminate]. exists f. split; [reflexivity | exact Hc].
Qed.

Theorem step_inv : forall core table k st c,
  core_ok core -> state_inv st -> state_inv (snd (step core table k st c)).
Proof.
  intros core table k st c Hc Hi. unfold step.
  destruct (find_cfun table (c_fn c)) as [f|]; [|exact Hi].
  destruct (is_hand_modelled (c_fn c)); [apply hand_step_post; exact Hi|].
  destruct (cf_tmpl f =? ""); [exact Hi|].
  apply fwd_step_inv; assumption.
Qed.

Theorem run_inv : forall core table cs k st,
  core_ok core -> state_inv st -> Forall (fun os => state_inv (snd os)) (run core table k st cs).
Proof.
  intros core table cs. induction cs as [|c r IH]; intros k st Hc Hi; cbn [run]; [constructor|].
  constructor; [apply step_inv; assumption|].
  destruct (stops (fst (step core table k st c))); [constructor|].
  apply IH; [assumption|]. apply step_inv; assumption.
Qed.

Lemma init_state_inv : forall nb nv ns nm, state_inv (init_state nb nv ns nm).
Proof.
  intros. constructor; cbn; apply Forall_forall; intros x Hx; apply repeat_spec in Hx; subst.
  - reflexivity.
  - constructor.
  - split; constructor.
  - split; [constructor|split; constructor].
Qed.

Definition NOEXC := RetCode SYMENGINE_NO_EXCEPTION.

(* The indexed accessors on an index [Z.of_nat n], in range or not: the bounds check of vecbasic_get / set / erase
   answers SYMENGINE_RUNTIME_ERROR exactly where the list operation is undefined (so [MemErr] is never reached);
   setbasic_get has no check. *)
Lemma of_nat_index : forall n, (Z.of_nat n <? 0)%Z = false.
Proof. intro n. apply Z.ltb_ge. apply Nat2Z.is_nonneg. Qed.

Lemma h_vec_get_eq : forall st i j n l, nth_error (s_v st) i = Some l -> (j < length (s_b st))%nat ->
  h_vec_get st [AV i; AZ (Z.of_nat n); AB j] =
  match nth_error l n with Some x => (NOEXC, set_b st j x) | None => (RetCode SYMENGINE_RUNTIME_ERROR, st) end.
Proof.
  intros st i j n l Hl Hj. unfold h_vec_get. rewrite Hl, of_nat_index, Nat2Z.id, (proj2 (Nat.ltb_lt _ _) Hj). cbn [negb].
  destruct (Nat.leb_spec (length l) n) as [H|H].
  - rewrite (proj2 (nth_error_None l n) H). reflexivity.
  - destruct (nth_error l n) eqn:E; [reflexivity|]. apply nth_error_None in E. lia.
Qed.

Lemma h_vec_set_eq : forall st i j n l v, nth_error (s_v st) i = Some l -> nth_error (s_b st) j = Some v ->
  h_vec_set st [AV i; AZ (Z.of_nat n); AB j] =
  if (n <? length l)%nat then (NOEXC, set_v st i (upd_nth l n v)) else (RetCode SYMENGINE_RUNTIME_ERROR, st).
Proof.
  intros st i j n l v Hl Hv. unfold h_vec_set. rewrite Hl, Hv, of_nat_index, Nat2Z.id, Nat.ltb_antisym.
  destruct (length l <=? n)%nat; reflexivity.
Qed.

Lemma h_vec_erase_eq : forall st i n l, nth_error (s_v st) i = Some l ->
  h_vec_erase st [AV i; AZ (Z.of_nat n)] =
  if (n <? length l)%nat then (NOEXC, set_v st i (remove_nth l n)) else (RetCode SYMENGINE_RUNTIME_ERROR, st).
Proof.
  intros st i n l Hl. unfold h_vec_erase. rewrite Hl, of_nat_index, Nat2Z.id, Nat.ltb_antisym.
  destruct (length l <=? n)%nat; reflexivity.
Qed.

Lemma h_set_get_eq : forall st i j n s, nth_error (s_s st) i = Some s -> (j < length (s_b st))%nat ->
  h_set_get st [AS i; AZ (Z.of_nat n); AB j] =
  match nth_error s n with Some x => (RetVoid, set_b st j x) | None => (MemErr (N.of_nat n) (nlen s), st) end.
Proof.
  intros st i j n s Hs Hj. unfold h_set_get.
  rewrite Hs, (proj2 (Nat.ltb_lt _ _) Hj), of_nat_index, Nat2Z.id, <- nat_N_Z, N2Z.id. reflexivity.
Qed.

