(* C42 obligation: the same for whole sequences of C API calls of any length. *)
From SE Require Import C42.CWrapSpec C42.CContainers C42.CWrapProofs.
Local Open Scope string_scope.
Theorem C42_run_no_escape :
  forall (core : oracle) (table : list cfun) (cs : list call) (k : N) (st : state),
    core_respects_nothrow core table -> all_protected table cs ->
    forallb (fun os => negb (is_escape (fst os))) (run core table k st cs) = true.
Proof.
  intros core table cs. induction cs as [|c r IH]; intros k st Hc Hall; [reflexivity|].
  cbn [run forallb].
  destruct (Hall c (or_introl eq_refl)) as [f [Hf Hp]].
  rewrite (no_escape core table k st c f Hf Hp Hc). cbn [negb andb].
  destruct (stops (fst (step core table k st c))); [reflexivity|].
  apply IH; [exact Hc|]. intros c' Hc'. apply Hall. right. exact Hc'.
Qed.
Print Assumptions C42_run_no_escape.
