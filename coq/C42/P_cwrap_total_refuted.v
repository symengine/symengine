(* C42 obligation: a function of the current table is outside any try block and its callee throws: in the model the exception
   leaves the extern "C" function (lambda_real_double_visitor_init; replayed on the library by checks/C42.py). *)
From SE Require Import C42.CWrapSpec C42.CContainers C42.CWrapProofs C42.Gen_CWrap C42.CWrapTable.
Local Open Scope string_scope.
Theorem C42_cwrap_total_refuted :
  exists f, In f cwrap_table /\ protected f = false /\
    exists st c, fst (step throwing_core cwrap_table 0 st c) = Escape EXN_SYMENGINE /\ c_fn c = cf_name f.
Proof.
  pose (st := init_state 1 2 0 0). pose (c := mkcall "lambda_real_double_visitor_init" [AL; AV 0; AV 1; AZ 0]).
  assert (E : existsb (fun f => (c_fn c =? cf_name f) && negb (protected f)) cwrap_table = true) by (vm_compute; reflexivity).
  apply existsb_exists in E. destruct E as [f [Hin E]]. apply andb_true_iff in E. destruct E as [Hn Hp].
  exists f. split; [exact Hin|]. split; [apply negb_true_iff; exact Hp|].
  exists st, c. split; [vm_compute; reflexivity | apply String.eqb_eq; exact Hn].
Qed.
Print Assumptions C42_cwrap_total_refuted.
