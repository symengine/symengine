(* C42 obligation: exception translation: when the C++ side throws class cls inside CWRAPPER_BEGIN/END the C function returns the
   error code of cls, which is never SYMENGINE_NO_EXCEPTION, and assigns nothing. *)
From SE Require Import C42.CWrapSpec C42.CContainers C42.CWrapProofs.
Local Open Scope string_scope.
Theorem C42_error_atomic :
  forall (core : oracle) (f : cfun) (k : N) (st : state) (actuals : list arg) (cargs : list cval) (cls : N),
    cf_wrap f = WFull ->
    actuals_match (cf_params f) actuals = true ->
    all_hold guard_holds st actuals (cf_guards f) = true ->
    all_hold class_holds st actuals (cf_casts f) = true ->
    zguard_fires actuals (cf_zguards f) = None ->
    resolve_all st actuals (cf_args f) = Some cargs ->
    (cf_tmpl f =? "$") = false ->
    core k (cf_tmpl f) cargs = ErrExn cls ->
    fwd_step core f k st actuals = (RetCode (code_of_exn cls), st) /\ code_of_exn cls <> SYMENGINE_NO_EXCEPTION.
Proof.
  intros core f k st actuals cargs cls Hw Ha Hg Hc Hz Hr Ht He.
  unfold fwd_step. rewrite Ha, Hg, Hc, Hz, Hr, Ht, He, Hw. cbn [negb]. split; [reflexivity|apply code_of_exn_nonzero].
Qed.
Print Assumptions C42_error_atomic.
