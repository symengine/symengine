(* C42 obligation: every Expression operator of expression.h forwards to the expected core function with the expected operand order
   (rows read from expression.h against the rows the driver's mirror exercises). *)
From SE Require Import C42.CWrapSpec C42.CContainers C42.CWrapProofs C42.Gen_CWrap C42.CWrapTable.
Local Open Scope string_scope.
Theorem C42_expression_ops :
  forallb (fun e => existsb (xrow_eqb e) expression_table) expected_expression_table = true /\
  forallb (fun g => existsb (xrow_eqb g) expected_expression_table || mem_str (xf_name g) ["diff"; "subs"])
          expression_table = true.
Proof. split; vm_compute; reflexivity. Qed.
Print Assumptions C42_expression_ops.
