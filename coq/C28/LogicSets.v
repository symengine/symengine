(* C28 -- the std::set operations of the model on fragment keys: a key that find() reports IS the
   key looked up (LogicCmp.keyless_equiv_eq), so insert / erase / find have their set meaning for
   every fold that the truth-value theorems use (conjunction, disjunction, parity).
   No sortedness is assumed anywhere: the lemmas hold for every list the walk is run on. *)
From SE Require Export C28.LogicCmp.
Local Open Scope N_scope.

Lemma set_mem_In : forall k s, frag k = true -> forallb frag s = true ->
  set_mem k s = true -> In k s.
Proof.
  induction s as [|k' r IH]; cbn [set_mem forallb]; [discriminate|].
  intros Hk Hs. rewrite andb_true_iff in Hs. destruct Hs as [Hk' Hr].
  destruct (expr_keyless k' k) eqn:E1.
  - intros H. right. auto.
  - rewrite negb_true_iff. intros E2. left. symmetry. apply keyless_equiv_eq; auto.
Qed.

(* forallb / existsb see only the members of a list *)
Lemma forallb_same : forall (A : Type) (p : A -> bool) l1 l2,
  (forall x, In x l1 <-> In x l2) -> forallb p l1 = forallb p l2.
Proof.
  intros A p l1 l2 H. apply eq_true_iff_eq. rewrite !forallb_forall.
  split; intros Hp x Hx; apply Hp, H, Hx.
Qed.

Lemma existsb_same : forall (A : Type) (p : A -> bool) l1 l2,
  (forall x, In x l1 <-> In x l2) -> existsb p l1 = existsb p l2.
Proof.
  intros A p l1 l2 H. apply eq_true_iff_eq. rewrite !existsb_exists.
  split; intros [x [Hx Px]]; exists x; (split; [apply H, Hx|exact Px]).
Qed.

Lemma In_set_insert : forall x k s, frag k = true -> forallb frag s = true ->
  In x (set_insert k s) <-> In x (k :: s).
Proof.
  induction s as [|k' r IH]; cbn [set_insert forallb]; intros Hk Hs; [reflexivity|].
  apply andb_true_iff in Hs. destruct Hs as [Hk' Hr]. specialize (IH Hk Hr).
  destruct (expr_keyless k' k) eqn:E1; [|destruct (expr_keyless k k') eqn:E2].
  - cbn [In] in *. tauto.
  - reflexivity.
  - rewrite (keyless_equiv_eq k k') by assumption. cbn [In]. tauto.
Qed.

Lemma forallb_set_insert : forall (p : expr -> bool) k s, frag k = true -> forallb frag s = true ->
  forallb p (set_insert k s) = p k && forallb p s.
Proof. intros. apply (forallb_same _ p _ (k :: s)). intros x. apply In_set_insert; assumption. Qed.

Lemma existsb_set_insert : forall (p : expr -> bool) k s, frag k = true -> forallb frag s = true ->
  existsb p (set_insert k s) = p k || existsb p s.
Proof. intros. apply (existsb_same _ p _ (k :: s)). intros x. apply In_set_insert; assumption. Qed.

Lemma frag_set_insert : forall k s, frag k = true -> forallb frag s = true ->
  forallb frag (set_insert k s) = true.
Proof. intros. rewrite forallb_set_insert by auto. rewrite H, H0. reflexivity. Qed.

Lemma In_set_insert_all : forall x l s, forallb frag l = true -> forallb frag s = true ->
  In x (set_insert_all l s) <-> In x (l ++ s).
Proof.
  unfold set_insert_all. induction l as [|a l IH]; cbn [fold_left forallb app]; intros s Hl Hs.
  - reflexivity.
  - apply andb_true_iff in Hl. destruct Hl as [Ha Hl].
    rewrite IH by auto using frag_set_insert. cbn [In].
    rewrite !in_app_iff, In_set_insert by assumption. cbn [In]. tauto.
Qed.

Lemma forallb_set_insert_all : forall (p : expr -> bool) l s,
  forallb frag l = true -> forallb frag s = true ->
  forallb p (set_insert_all l s) = forallb p l && forallb p s.
Proof.
  intros. rewrite <- forallb_app. apply forallb_same. intros x. apply In_set_insert_all; assumption.
Qed.

Lemma existsb_set_insert_all : forall (p : expr -> bool) l s,
  forallb frag l = true -> forallb frag s = true ->
  existsb p (set_insert_all l s) = existsb p l || existsb p s.
Proof.
  intros. rewrite <- existsb_app. apply existsb_same. intros x. apply In_set_insert_all; assumption.
Qed.

Lemma frag_set_insert_all : forall l s, forallb frag l = true -> forallb frag s = true ->
  forallb frag (set_insert_all l s) = true.
Proof. intros. rewrite forallb_set_insert_all by auto. rewrite H, H0. reflexivity. Qed.

Lemma forallb_set_of_list : forall (p : expr -> bool) l, forallb frag l = true ->
  forallb p (set_of_list l) = forallb p l.
Proof.
  intros. unfold set_of_list. rewrite forallb_set_insert_all by auto. cbn [forallb].
  apply andb_true_r.
Qed.

Lemma existsb_set_of_list : forall (p : expr -> bool) l, forallb frag l = true ->
  existsb p (set_of_list l) = existsb p l.
Proof.
  intros. unfold set_of_list. rewrite existsb_set_insert_all by auto. cbn [existsb].
  apply orb_false_r.
Qed.

(* an element that find() does not report is really added (no hypothesis on the keys) *)
Lemma xor_set_insert_new : forall (p : expr -> bool) k s, set_mem k s = false ->
  xor_all (map p (set_insert k s)) = xorb (p k) (xor_all (map p s)).
Proof.
  unfold xor_all. induction s as [|k' r IH]; cbn [set_mem set_insert map fold_right].
  - reflexivity.
  - destruct (expr_keyless k' k) eqn:E1.
    + intros H. cbn [map fold_right]. rewrite IH by assumption.
      destruct (p k), (p k'), (fold_right xorb false (map p r)); reflexivity.
    + rewrite negb_false_iff. intros E2. rewrite E2. reflexivity.
Qed.

Lemma set_erase_incl : forall k s x, In x (set_erase k s) -> In x s.
Proof.
  induction s as [|k' r IH]; cbn [set_erase]; [tauto|]. intros x.
  destruct (expr_keyless k' k).
  - cbn [In]. intros [H|H]; auto.
  - destruct (expr_keyless k k'); cbn [In]; auto.
Qed.

Lemma forallb_set_erase : forall (p : expr -> bool) k s, forallb p s = true ->
  forallb p (set_erase k s) = true.
Proof.
  intros p k s H. rewrite forallb_forall in *. intros x Hx. apply H. eapply set_erase_incl; eauto.
Qed.

Lemma xor_set_erase : forall (p : expr -> bool) k s, frag k = true -> forallb frag s = true ->
  set_mem k s = true ->
  xor_all (map p (set_erase k s)) = xorb (p k) (xor_all (map p s)).
Proof.
  unfold xor_all. induction s as [|k' r IH]; cbn [set_mem set_erase map fold_right forallb]; [discriminate|].
  intros Hk Hs. rewrite andb_true_iff in Hs. destruct Hs as [Hk' Hr].
  destruct (expr_keyless k' k) eqn:E1.
  - intros H. cbn [map fold_right]. rewrite IH by assumption.
    destruct (p k), (p k'), (fold_right xorb false (map p r)); reflexivity.
  - rewrite negb_true_iff. intros E2. rewrite E2.
    assert (k = k') by (apply keyless_equiv_eq; auto). subst k'.
    destruct (p k), (fold_right xorb false (map p r)); reflexivity.
Qed.

(* removing a member by key loses nothing else: every old member is the key or remains *)
Lemma In_set_erase : forall x it s, frag it = true -> forallb frag s = true ->
  In x s -> In x (it :: set_erase it s).
Proof.
  induction s as [|k' r IH]; cbn [set_erase forallb]; intros Hi Hs; [intros []|].
  apply andb_true_iff in Hs. destruct Hs as [Hk' Hr]. specialize (IH Hi Hr).
  destruct (expr_keyless k' it) eqn:E1; [|destruct (expr_keyless it k') eqn:E2].
  - cbn [In] in *. tauto.
  - cbn [In]. tauto.
  - rewrite (keyless_equiv_eq it k') by assumption. cbn [In]. tauto.
Qed.

Lemma forallb_set_erase_member : forall (p : expr -> bool) it s,
  frag it = true -> forallb frag s = true -> In it s ->
  forallb p s = p it && forallb p (set_erase it s).
Proof.
  intros p it s Hi Hs Hin. apply (forallb_same _ p s (it :: set_erase it s)). intros x. split.
  - apply In_set_erase; assumption.
  - intros [<-|Hx]; [exact Hin|exact (set_erase_incl _ _ _ Hx)].
Qed.

Lemma frag_set_erase : forall k s, forallb frag s = true -> forallb frag (set_erase k s) = true.
Proof. intros. apply forallb_set_erase. assumption. Qed.
