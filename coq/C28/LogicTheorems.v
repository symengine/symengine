(* C28 -- the property theorems as the obligations state them: the partial reading [denoteB] (defined exactly
   on the fragment) of every simplifier output is the schoolbook combination of the inputs' truth
   values, for all formulas, all assignments, all argument orders, all fuel values. *)
From SE Require Export C28.LogicProofs.
From Coq Require Import Lia.
Local Open Scope N_scope.

(* a result that is a formula with the truth value [b] denotes [b] *)
Lemma denoteB_sound : forall (b : env -> bool) r rho,
  formula r = true /\ (forall rho, evalB rho r = b rho) -> denoteB rho r = Some (b rho).
Proof. intros b r rho [F E]. unfold denoteB. rewrite F, E. reflexivity. Qed.

Lemma denoteB_formula : forall rho a, formula a = true -> denoteB rho a = Some (evalB rho a).
Proof. intros. apply (denoteB_sound (fun rho => evalB rho a)). auto. Qed.

Theorem not_sound : forall a rho, formula a = true ->
  denoteB rho (lnot a) = Some (negb (evalB rho a)).
Proof. intros a rho H. apply (denoteB_sound (fun rho => negb (evalB rho a))), lnot_sound, H. Qed.

Theorem and_or_sound_any_fuel : forall fuel is_or s r rho, forallb formula s = true ->
  and_or fuel is_or s = Ok r ->
  denoteB rho r = Some (if is_or then existsb (evalB rho) s else forallb (evalB rho) s).
Proof.
  intros fuel is_or s r rho Hs H.
  exact (denoteB_sound (fun rho => agg is_or rho s) r rho (proj1 (and_or_subs_sound fuel) is_or s r Hs H)).
Qed.

Theorem and_sound : forall s r rho, forallb formula s = true -> logical_and s = Ok r ->
  denoteB rho r = Some (forallb (evalB rho) s).
Proof. intros s r rho. apply (and_or_sound_any_fuel _ false). Qed.

Theorem or_sound : forall s r rho, forallb formula s = true -> logical_or s = Ok r ->
  denoteB rho r = Some (existsb (evalB rho) s).
Proof. intros s r rho. apply (and_or_sound_any_fuel _ true). Qed.

Theorem nand_sound : forall s r rho, forallb formula s = true -> logical_nand s = Ok r ->
  denoteB rho r = Some (negb (forallb (evalB rho) s)).
Proof.
  intros s r rho Hs H.
  apply (denoteB_sound (fun rho => negb (forallb (evalB rho) s))), (logical_nand_sound s r Hs H).
Qed.

Theorem nor_sound : forall s r rho, forallb formula s = true -> logical_nor s = Ok r ->
  denoteB rho r = Some (negb (existsb (evalB rho) s)).
Proof.
  intros s r rho Hs H.
  apply (denoteB_sound (fun rho => negb (existsb (evalB rho) s))), (logical_nor_sound s r Hs H).
Qed.

Theorem xor_sound : forall s rho, forallb formula s = true ->
  denoteB rho (logical_xor s) = Some (xor_all (map (evalB rho) s)).
Proof.
  intros s rho Hs. apply (denoteB_sound (fun rho => xor_all (map (evalB rho) s))), logical_xor_sound, Hs.
Qed.

Theorem xnor_sound : forall s rho, forallb formula s = true ->
  denoteB rho (logical_xnor s) = Some (negb (xor_all (map (evalB rho) s))).
Proof.
  intros s rho Hs.
  apply (denoteB_sound (fun rho => negb (xor_all (map (evalB rho) s)))), logical_xnor_sound, Hs.
Qed.

(* Basic::subs({x: v}) on a formula is evaluation under the updated assignment *)
Theorem subs_formula_sound : forall fuel nm v e r rho, formula e = true -> term_ok v = true ->
  subs fuel (ESym nm) v e = Ok r ->
  denoteB rho r = Some (evalB (upd rho nm (evalT rho v)) e).
Proof.
  intros fuel nm v e r rho He Hv H.
  apply (denoteB_sound (fun rho => evalB (upd rho nm (evalT rho v)) e)), (subs_sound fuel nm v e r He Hv H).
Qed.

Theorem contains_simplify_sound : forall e s r rho, term_ok e = true -> set_ok s = true ->
  contains e s = Ok r -> denoteB rho r = Some (evalS rho s (evalT rho e)).
Proof.
  intros e s r rho He Hs H.
  apply (denoteB_sound (fun rho => evalS rho s (evalT rho e))), (contains_sound e s r He Hs H).
Qed.

(* Eq / Ne / Lt / Le / Gt / Ge on terms *)
Theorem relational_sound : forall a b rho, term_ok a = true -> term_ok b = true ->
  denoteB rho (mk_Eq a b) = Some (Qeq_bool (evalT rho a) (evalT rho b)) /\
  denoteB rho (mk_Ne a b) = Some (negb (Qeq_bool (evalT rho a) (evalT rho b))) /\
  (forall r, mk_Lt a b = Ok r -> denoteB rho r = Some (Qltb (evalT rho a) (evalT rho b))) /\
  (forall r, mk_Le a b = Ok r -> denoteB rho r = Some (Qle_bool (evalT rho a) (evalT rho b))) /\
  (forall r, mk_Gt a b = Ok r -> denoteB rho r = Some (Qltb (evalT rho b) (evalT rho a))) /\
  (forall r, mk_Ge a b = Ok r -> denoteB rho r = Some (Qle_bool (evalT rho b) (evalT rho a))).
Proof.
  intros a b rho Ha Hb. repeat split.
  - apply (denoteB_sound (fun rho => Qeq_bool (evalT rho a) (evalT rho b))), mk_Eq_sound; auto.
  - apply (denoteB_sound (fun rho => negb (Qeq_bool (evalT rho a) (evalT rho b)))), mk_Ne_sound; auto.
  - intros r H. apply (denoteB_sound (fun rho => Qltb (evalT rho a) (evalT rho b))), (mk_Lt_sound a b r Ha Hb H).
  - intros r H. apply (denoteB_sound (fun rho => Qle_bool (evalT rho a) (evalT rho b))), (mk_Le_sound a b r Ha Hb H).
  - intros r H. apply (denoteB_sound (fun rho => Qltb (evalT rho b) (evalT rho a))), (mk_Lt_sound b a r Hb Ha H).
  - intros r H. apply (denoteB_sound (fun rho => Qle_bool (evalT rho b) (evalT rho a))), (mk_Le_sound b a r Hb Ha H).
Qed.

(* the order comparisons never throw on terms *)
Theorem relational_total : forall a b, term_ok a = true -> term_ok b = true ->
  is_ok (mk_Lt a b) = true /\ is_ok (mk_Le a b) = true.
Proof.
  intros a b Ha Hb.
  destruct (mk_Lt_Le_cases a b Ha Hb) as [[_ [-> ->]]|[[x [y [_ [_ [_ [-> ->]]]]]]|[-> ->]]];
    split; reflexivity.
Qed.

(* logical_or and logical_xor need no recursion budget *)
Theorem or_total : forall s, exists r, logical_or s = Ok r.
Proof.
  intros s. unfold logical_or, fuel_of.
  replace (4 * list_size s + 16)%nat with (S (4 * list_size s + 15)) by lia. cbn [and_or].
  destruct (ao_collect true s []); [|eauto]. destruct (has_compl l); eauto.
Qed.
