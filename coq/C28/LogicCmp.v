(* C28 -- the comparator on the fragment.  [frag] is the class of well-coded trees over the node
   kinds of the fragment (exact numbers, symbols, BooleanAtom, the four relational classes,
   Contains, Not, And/Or/Xor, FiniteSet, Interval, EmptySet/UniversalSet).  Fragment trees are
   well-formed ([frag_wf]), so RCPBasicKeyLess is the strict weak order of C02 on them, whose
   incomparable keys are eq; and on the fragment the library's eq ([expr_eqb]) is structural
   identity.  Hence two keys that RCPBasicKeyLess cannot tell apart are identical
   ([keyless_equiv_eq]).  This is what makes std::set<.., RCPBasicKeyLess>::find / insert / erase
   meaningful for the truth-value theorems (a found key IS the key looked up). *)
From SE Require Export C28.LogicSpec.
From SE Require Import Expr.CmpProofs.
From Coq Require Import Lia.
Local Open Scope N_scope.

Definition conn_codes : list N := [TC_And; TC_Or; TC_Xor; TC_FiniteSet].

Fixpoint frag (e : expr) : bool :=
  match e with
  | ENum n => num_ok n
  | ESym _ => true
  | EBool _ => true
  | EAtom c => (c =? TC_EmptySet) || (c =? TC_UniversalSet)
  | EInterval s x _ _ => numlit_ok s && numlit_ok x
  | EF1 c a => (c =? TC_Not) && frag a
  | EF2 c a b => mem_code c rel_codes && frag a && frag b
  | ELex c a s => (c =? TC_Contains) && frag a && frag s
  | EFN c l => mem_code c conn_codes && forallb frag l
  | _ => false
  end.

Lemma numlit_frag : forall e, numlit_ok e = true -> frag e = true.
Proof. destruct e; cbn; auto; discriminate. Qed.

Lemma term_frag : forall e, term_ok e = true -> frag e = true.
Proof. destruct e; cbn; auto; discriminate. Qed.

Lemma forallb_impl : forall (A : Type) (p q : A -> bool) l,
  (forall x, In x l -> p x = true -> q x = true) -> forallb p l = true -> forallb q l = true.
Proof.
  induction l; cbn; auto. intros H. rewrite !andb_true_iff. intros [H1 H2]. split.
  - apply H; auto.
  - apply IHl; auto.
Qed.

Lemma forallb_terms_frag : forall l, forallb term_ok l = true -> forallb frag l = true.
Proof. intros l H. eapply forallb_impl; [|exact H]. intros; apply term_frag; auto. Qed.

Inductive set_view : expr -> Prop :=
| SV_interval : forall x y lo ro, num_ok x = true -> num_ok y = true ->
    interval_ordered (ENum x) (ENum y) = true -> set_view (EInterval (ENum x) (ENum y) lo ro)
| SV_fset : forall l, forallb term_ok l = true -> set_view (EFN TC_FiniteSet l)
| SV_atom : forall c, c = TC_EmptySet \/ c = TC_UniversalSet -> set_view (EAtom c).

Lemma set_inv : forall e, set_ok e = true -> set_view e.
Proof.
  destruct e; try discriminate; cbn [set_ok]; intros H.
  - rewrite andb_true_iff, N.eqb_eq in H. destruct H as [-> Hl]. constructor; exact Hl.
  - rewrite !andb_true_iff in H. destruct H as [[H1 H2] Ho].
    destruct e1; try discriminate H1. destruct e2; try discriminate H2. constructor; assumption.
  - constructor. rewrite orb_true_iff, !N.eqb_eq in H. exact H.
Qed.

Lemma set_frag : forall e, set_ok e = true -> frag e = true.
Proof.
  intros e He. destruct (set_inv e He) as [x y lo ro Hx Hy _|l Hl|c [->| ->]]; cbn [frag numlit_ok].
  - rewrite Hx, Hy. reflexivity.
  - rewrite (forallb_terms_frag l Hl). reflexivity.
  - reflexivity.
  - reflexivity.
Qed.

Lemma mem_rel_codes : forall c, mem_code c rel_codes = true ->
  c = TC_Equality \/ c = TC_Unequality \/ c = TC_LessThan \/ c = TC_StrictLessThan.
Proof.
  unfold mem_code, rel_codes. cbn [existsb]. intros c. rewrite !orb_true_iff, !N.eqb_eq. intuition discriminate.
Qed.

Lemma mem_conn_codes : forall c, mem_code c conn_codes = true ->
  c = TC_And \/ c = TC_Or \/ c = TC_Xor \/ c = TC_FiniteSet.
Proof.
  unfold mem_code, conn_codes. cbn [existsb]. intros c. rewrite !orb_true_iff, !N.eqb_eq. intuition discriminate.
Qed.

Section SizeInd.
  Variable P : expr -> Prop.
  Hypothesis step : forall e, (forall e', (size e' < size e)%nat -> P e') -> P e.
  Lemma expr_size_ind : forall e, P e.
  Proof.
    assert (H : forall n e, (size e < n)%nat -> P e).
    { induction n; intros e He; [lia|]. apply step. intros e' He'. apply IHn. lia. }
    intros e. apply (H (S (size e))). lia.
  Qed.
End SizeInd.

Lemma in_list_size : forall x l, In x l -> (size x <= fold_right (fun x acc => size x + acc) 0 l)%nat.
Proof.
  induction l; cbn [In fold_right]; [tauto|]. intros [->|H]; [lia|]. apply IHl in H. lia.
Qed.

(* the five shapes of a formula, each with what [formula] demands of its parts: the proofs about formulas
   split on [formula_inv] where they would otherwise go through every constructor of [expr] *)
Inductive formula_view : expr -> Prop :=
| FV_bool : forall b, formula_view (EBool b)
| FV_not : forall a, formula a = true -> formula_view (EF1 TC_Not a)
| FV_rel : forall c a b, mem_code c rel_codes = true -> term_ok a = true -> term_ok b = true ->
    formula_view (EF2 c a b)
| FV_contains : forall a s, term_ok a = true -> set_ok s = true -> formula_view (ELex TC_Contains a s)
| FV_conn : forall c l, c = TC_And \/ c = TC_Or \/ c = TC_Xor -> forallb formula l = true ->
    formula_view (EFN c l).

Lemma formula_inv : forall e, formula e = true -> formula_view e.
Proof.
  destruct e; try discriminate; cbn [formula]; rewrite ?andb_true_iff; intros H.
  - destruct H as [Hc Ha]. apply N.eqb_eq in Hc. subst. constructor; assumption.
  - destruct H as [[Hc Ha] Hb]. constructor; assumption.
  - destruct H as [Hc Hl]. constructor; [|assumption]. rewrite !orb_true_iff, !N.eqb_eq in Hc. tauto.
  - destruct H as [[Hc Ha] Hs]. apply N.eqb_eq in Hc. subst. constructor; assumption.
  - constructor.
Qed.

Lemma formula_frag : forall e, formula e = true -> frag e = true.
Proof.
  induction e as [e IH] using expr_size_ind. intros He.
  destruct (formula_inv e He) as [b|a Ha|c a b Hc Ha Hb|a s Ha Hs|c l Hc Hl]; cbn [frag size] in *.
  - reflexivity.
  - apply IH; [lia|exact Ha].
  - rewrite Hc, (term_frag a Ha), (term_frag b Hb). reflexivity.
  - rewrite (term_frag a Ha), (set_frag s Hs). reflexivity.
  - rewrite (forallb_impl _ formula frag l); [destruct Hc as [->|[->| ->]]; reflexivity| |exact Hl].
    intros x Hx. apply IH. apply in_list_size in Hx. lia.
Qed.

Lemma forallb_formula_frag : forall l, forallb formula l = true -> forallb frag l = true.
Proof. intros l H. eapply forallb_impl; [|exact H]. intros; apply formula_frag; auto. Qed.

Lemma num_ok_wf : forall n, num_ok n = true -> num_wf n = true.
Proof. destruct n; try discriminate; intros H; exact H. Qed.

Lemma num_eqb_true : forall x y, num_ok x = true -> num_ok y = true -> num_eqb x y = true -> x = y.
Proof.
  intros x y Hx Hy H.
  destruct x; try discriminate Hx; destruct y; try discriminate Hy; try discriminate H; cbn [num_eqb] in H.
  - apply Z.eqb_eq in H. congruence.
  - cbn [num_ok] in Hx, Hy. rewrite andb_true_iff in Hx, Hy. destruct Hx as [G1 _], Hy as [G2 _].
    apply Z.eqb_eq in G1, G2. unfold Qeq_pair in H. apply Z.eqb_eq in H.
    destruct (rat_canon _ _ _ _ G1 G2 H) as [-> ->]. reflexivity.
Qed.

Lemma frag_EFN : forall c l, frag (EFN c l) = true ->
  (c = TC_And \/ c = TC_Or \/ c = TC_Xor \/ c = TC_FiniteSet) /\ forallb frag l = true.
Proof. cbn [frag]. intros c l. rewrite andb_true_iff. intros [H1 H2]. split; auto using mem_conn_codes. Qed.

Lemma forallb_In : forall (A : Type) (p : A -> bool) l x, forallb p l = true -> In x l -> p x = true.
Proof. intros A p l x H Hx. rewrite forallb_forall in H. auto. Qed.

Lemma list_eqb_true : forall (r : expr -> expr -> bool) l1 l2,
  (forall x y, In x l1 -> In y l2 -> r x y = true -> x = y) -> list_eqb r l1 l2 = true -> l1 = l2.
Proof.
  induction l1 as [|x l1 IH]; destruct l2 as [|y l2]; cbn [list_eqb]; try discriminate; auto.
  intros H. rewrite andb_true_iff. intros [H1 H2]. f_equal.
  - apply H; cbn; auto.
  - apply IH; auto. intros; apply H; cbn; auto.
Qed.

Lemma eqb_true : forall f a b, frag a = true -> frag b = true -> Cmp.eqb f a b = true -> a = b.
Proof.
  induction f as [|f IH]; intros a b Ha Hb H; [discriminate|].
  destruct a; try discriminate Ha; destruct b; try discriminate H; cbn [Cmp.eqb] in H.
  - f_equal. apply num_eqb_true; auto.
  - f_equal. apply bytes_eqb_eq; auto.
  - cbn [frag] in Ha, Hb. rewrite !andb_true_iff in *. destruct H as [Hc H], Ha as [_ Ha], Hb as [_ Hb].
    apply N.eqb_eq in Hc. subst. f_equal. eauto.
  - cbn [frag] in Ha, Hb. rewrite !andb_true_iff in *.
    destruct H as [[Hc H1] H2], Ha as [[_ Ha1] Ha2], Hb as [[_ Hb1] Hb2].
    apply N.eqb_eq in Hc. subst. f_equal; eauto.
  - apply frag_EFN in Ha, Hb. destruct Ha as [_ Ha], Hb as [_ Hb]. rewrite andb_true_iff in H.
    destruct H as [Hc H]. apply N.eqb_eq in Hc. subst. f_equal.
    apply (list_eqb_true (Cmp.eqb f)); auto. intros x y Hx Hy. apply IH; [exact (forallb_In _ _ _ _ Ha Hx)|exact (forallb_In _ _ _ _ Hb Hy)].
  - cbn [frag] in Ha, Hb. rewrite !andb_true_iff in *.
    destruct H as [[Hc H1] H2], Ha as [[_ Ha1] Ha2], Hb as [[_ Hb1] Hb2].
    apply N.eqb_eq in Hc. subst. f_equal; eauto.
  - apply Bool.eqb_prop in H. congruence.
  - cbn [frag] in Ha, Hb. rewrite !andb_true_iff in *.
    destruct H as [[[Hl Hr] H1] H2], Ha as [Ha1 Ha2], Hb as [Hb1 Hb2].
    apply Bool.eqb_prop in Hl, Hr. subst. f_equal; apply IH; auto using numlit_frag.
  - apply N.eqb_eq in H. congruence.
Qed.

Lemma expr_eqb_true : forall a b, frag a = true -> frag b = true -> expr_eqb a b = true -> a = b.
Proof. unfold expr_eqb. intros. eapply eqb_true; eauto. Qed.

Lemma list_eqb_refl : forall (r : expr -> expr -> bool) l,
  (forall x, In x l -> r x x = true) -> list_eqb r l l = true.
Proof.
  induction l as [|x l IH]; cbn [list_eqb]; auto. intros H. rewrite H by (cbn; auto).
  apply IH. intros; apply H; cbn; auto.
Qed.

Lemma eqb_refl : forall f a, frag a = true -> (size a + size a <= f)%nat -> Cmp.eqb f a a = true.
Proof.
  induction f as [|f IH]; intros a Ha Hs; [destruct a; cbn [size] in Hs; lia|].
  destruct a; try discriminate Ha; cbn [Cmp.eqb]; cbn [size] in Hs.
  - apply num_eqb_refl, num_ok_wf, Ha.
  - apply bytes_eqb_refl.
  - cbn [frag] in Ha. rewrite andb_true_iff in Ha. destruct Ha as [_ Ha].
    rewrite N.eqb_refl. cbn [andb]. apply IH; auto. lia.
  - cbn [frag] in Ha. rewrite !andb_true_iff in Ha. destruct Ha as [[_ Ha1] Ha2].
    rewrite N.eqb_refl, !IH by (auto; lia). reflexivity.
  - apply frag_EFN in Ha. destruct Ha as [_ Ha]. rewrite N.eqb_refl. cbn [andb].
    apply list_eqb_refl. intros x Hx. apply IH; [eapply forallb_In; eauto|].
    apply in_list_size in Hx. lia.
  - cbn [frag] in Ha. rewrite !andb_true_iff in Ha. destruct Ha as [[_ Ha1] Ha2].
    rewrite N.eqb_refl, !IH by (auto; lia). reflexivity.
  - apply Bool.eqb_reflx.
  - cbn [frag] in Ha. rewrite andb_true_iff in Ha. destruct Ha as [Ha1 Ha2].
    rewrite !Bool.eqb_reflx, !IH by (auto using numlit_frag; lia). reflexivity.
  - apply N.eqb_refl.
Qed.

Lemma eqb_iff : forall f a b, frag a = true -> frag b = true -> (size a + size b <= f)%nat ->
  (Cmp.eqb f a b = true <-> a = b).
Proof.
  intros f a b Ha Hb Hs. split.
  - apply eqb_true; auto.
  - intros ->. apply eqb_refl; auto.
Qed.

Lemma frag_wf : forall e, frag e = true -> wf e = true.
Proof.
  induction e as [e IH] using expr_size_ind.
  assert (kid : forall x, (size x < size e)%nat -> frag x = true ->
                          wf_struct x = true /\ codes_ok x = true)
    by (intros x Hx Fx; apply andb_true_iff, IH; assumption).
  assert (kids : forall l, (forall x, In x l -> (size x < size e)%nat) -> forallb frag l = true ->
                           forallb wf_struct l = true /\ forallb codes_ok l = true).
  { intros l Hl Fl. rewrite !forallb_forall in *. split; intros x Hx; apply kid; auto. }
  unfold wf. destruct e; try discriminate; cbn [frag wf_struct codes_ok size] in *.
  - intros He. rewrite (num_ok_wf n He). exact (codes_ok_num n).
  - reflexivity.
  - intros He. rewrite andb_true_iff, N.eqb_eq in He. destruct He as [-> Ha].
    destruct (kid e ltac:(lia) Ha) as [-> ->]. reflexivity.
  - intros He. rewrite !andb_true_iff in He. destruct He as [[Hc Ha] Hb].
    destruct (kid e1 ltac:(lia) Ha) as [-> ->], (kid e2 ltac:(lia) Hb) as [-> ->].
    apply mem_rel_codes in Hc. destruct Hc as [->|[->|[->| ->]]]; reflexivity.
  - intros He. rewrite andb_true_iff in He. destruct He as [Hc Hl].
    destruct (kids args) as [-> ->]; [intros x Hx; apply in_list_size in Hx; lia|exact Hl|].
    apply mem_conn_codes in Hc. destruct Hc as [->|[->|[->| ->]]]; reflexivity.
  - intros He. rewrite !andb_true_iff, N.eqb_eq in He. destruct He as [[-> Ha] Hb].
    destruct (kid e1 ltac:(lia) Ha) as [-> ->], (kid e2 ltac:(lia) Hb) as [-> ->]. reflexivity.
  - reflexivity.
  - intros He. rewrite andb_true_iff in He. destruct He as [Ha Hb].
    destruct (kid e1 ltac:(lia) (numlit_frag _ Ha)) as [-> ->],
             (kid e2 ltac:(lia) (numlit_frag _ Hb)) as [-> ->]. reflexivity.
  - rewrite orb_true_iff, !N.eqb_eq. intros [->| ->]; reflexivity.
Qed.

Theorem keyless_irrefl : forall a, frag a = true -> expr_keyless a a = false.
Proof. intros a Ha. apply (proj1 keyless_strict_weak_order), frag_wf, Ha. Qed.

Theorem keyless_equiv_eq : forall a b, frag a = true -> frag b = true ->
  expr_keyless a b = false -> expr_keyless b a = false -> a = b.
Proof.
  intros a b Ha Hb H1 H2. apply expr_eqb_true; auto.
  destruct keyless_strict_weak_order as [_ [_ Heq]]. apply Heq; auto using frag_wf.
Qed.

Lemma keyless_equiv_true : forall a b, frag a = true -> frag b = true ->
  keyless_equiv a b = true -> a = b.
Proof.
  unfold keyless_equiv. intros a b Ha Hb H. rewrite andb_true_iff, !negb_true_iff in H.
  destruct H. apply keyless_equiv_eq; auto.
Qed.

Lemma keyless_equiv_refl : forall a, frag a = true -> keyless_equiv a a = true.
Proof. intros. unfold keyless_equiv. rewrite keyless_irrefl; auto. Qed.
