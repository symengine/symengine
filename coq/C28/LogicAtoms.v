(* C28 -- soundness of the atom-level operations: Eq / Ne / Le / Lt on terms, Set::contains for
   Interval / FiniteSet / EmptySet / UniversalSet, contains(), and logical_not. *)
From SE Require Export C28.LogicSets.
From SE Require Import Expr.NumProofs.
From Coq Require Import Lia.
Local Open Scope N_scope.

Lemma Qeq_bool_refl : forall x, Qeq_bool x x = true.
Proof. intros. apply Qeq_bool_iff. reflexivity. Qed.

Lemma Qeq_bool_sym : forall x y, Qeq_bool x y = Qeq_bool y x.
Proof.
  intros x y. destruct (Qeq_bool x y) eqn:E1, (Qeq_bool y x) eqn:E2; auto.
  - apply Qeq_bool_eq in E1. symmetry in E1. apply Qeq_eq_bool in E1. congruence.
  - apply Qeq_bool_eq in E2. symmetry in E2. apply Qeq_eq_bool in E2. congruence.
Qed.

Lemma Qle_bool_refl : forall x, Qle_bool x x = true.
Proof. intros. apply Qle_bool_iff. apply Qle_refl. Qed.

Lemma Qltb_irrefl : forall x, Qltb x x = false.
Proof. intros. unfold Qltb. rewrite Qle_bool_refl. reflexivity. Qed.

Lemma Qltb_iff : forall x y, Qltb x y = true <-> (x < y)%Q.
Proof.
  intros x y. unfold Qltb. rewrite negb_true_iff. split.
  - intros H. apply Qnot_le_lt. intros L. apply Qle_bool_iff in L. congruence.
  - intros H. apply not_true_is_false. intros L. apply Qle_bool_iff in L.
    apply (Qlt_not_le _ _ H L).
Qed.

(* x <= y, for x <> y, is x < y *)
Lemma Qle_bool_neq : forall x y, Qeq_bool x y = false -> Qle_bool x y = Qltb x y.
Proof.
  intros x y H. destruct (Qle_bool x y) eqn:E1, (Qltb x y) eqn:E2; auto.
  - apply Qle_bool_iff in E1. exfalso.
    assert (N : ~ (x < y)%Q) by (intros L; apply Qltb_iff in L; congruence).
    apply Qnot_lt_le in N. assert (x == y) by (apply Qle_antisym; auto).
    apply Qeq_eq_bool in H0. congruence.
  - apply Qltb_iff in E2. apply Qlt_le_weak in E2. apply Qle_bool_iff in E2. congruence.
Qed.

Lemma num_lt_Qltb : forall x y, num_ok x = true -> num_ok y = true ->
  num_lt x y = Some (Qltb (q_of x) (q_of y)).
Proof.
  intros x y Hx Hy.
  destruct x; try discriminate Hx; destruct y; try discriminate Hy;
    unfold num_lt, Qltb, Qle_bool; cbn [q_of_num q_of Qnum Qden]; f_equal; apply Z.ltb_antisym.
Qed.

(* a value has one canonical numeral: an Integer is the fraction over 1, which no Rational is *)
Lemma num_val_inj : forall x y, num_ok x = true -> num_ok y = true ->
  q_of x == q_of y -> x = y.
Proof.
  intros x y Hx Hy E.
  destruct x; try discriminate Hx; destruct y; try discriminate Hy; unfold Qeq in E;
    cbn [q_of Qnum Qden num_ok] in *.
  - f_equal. lia.
  - apply andb_true_iff in Hy. destruct Hy as [G D]. apply Z.eqb_eq in G.
    destruct (rat_canon _ 1 _ _ (Z.gcd_1_r z) G E) as [_ <-]. discriminate D.
  - apply andb_true_iff in Hx. destruct Hx as [G D]. apply Z.eqb_eq in G.
    destruct (rat_canon _ _ _ 1 G (Z.gcd_1_r z) E) as [_ ->]. discriminate D.
  - apply andb_true_iff in Hx, Hy. destruct Hx as [G1 _], Hy as [G2 _]. apply Z.eqb_eq in G1, G2.
    destruct (rat_canon _ _ _ _ G1 G2 E) as [-> ->]. reflexivity.
Qed.

Lemma expr_eqb_num : forall x y, expr_eqb (ENum x) (ENum y) = num_eqb x y.
Proof. reflexivity. Qed.

(* two exact numbers that are not eq have different values *)
Lemma num_neq_val : forall x y, num_ok x = true -> num_ok y = true ->
  expr_eqb (ENum x) (ENum y) = false -> Qeq_bool (q_of x) (q_of y) = false.
Proof.
  intros x y Hx Hy H. apply not_true_is_false. intros E. apply Qeq_bool_eq in E.
  apply num_val_inj in E; auto. subst y. rewrite expr_eqb_num, num_eqb_refl in H by (apply num_ok_wf, Hx).
  discriminate.
Qed.

Lemma term_cases : forall e, term_ok e = true ->
  (exists n, e = ENum n /\ num_ok n = true) \/ (exists nm, e = ESym nm).
Proof. destruct e; cbn; try discriminate; eauto. Qed.

Lemma term_guards : forall e, term_ok e = true ->
  is_nan e = false /\ is_complex e = false /\ is_zoo e = false /\ is_boolatom e = false /\ is_set e = false.
Proof.
  intros e H. destruct (term_cases e H) as [[n [-> Hn]]|[nm ->]].
  - destruct n; try discriminate Hn; repeat split; reflexivity.
  - repeat split; reflexivity.
Qed.

Lemma expr_eqb_term : forall a b, term_ok a = true -> term_ok b = true -> expr_eqb a b = true -> a = b.
Proof. intros. apply expr_eqb_true; auto using term_frag. Qed.

Lemma formula_rel : forall c a b, mem_code c rel_codes = true -> term_ok a = true -> term_ok b = true ->
  formula (EF2 c a b) = true.
Proof. intros. cbn [formula]. rewrite H, H0, H1. reflexivity. Qed.

(* Equality::create and Unequality::create on terms: both decide the comparison to the same
   constant, or both build the node with the same (canonically ordered) operands *)
Lemma mk_Eq_Ne_cases : forall a b, term_ok a = true -> term_ok b = true ->
  (exists v, mk_Eq a b = EBool v /\ mk_Ne a b = EBool (negb v) /\
             forall rho, Qeq_bool (evalT rho a) (evalT rho b) = v) \/
  (exists x y, (x = a /\ y = b \/ x = b /\ y = a) /\
               mk_Eq a b = EF2 TC_Equality x y /\ mk_Ne a b = EF2 TC_Unequality x y).
Proof.
  intros a b Ha Hb. unfold mk_Ne, mk_Eq.
  destruct (term_guards a Ha) as [Na [_ [_ [Ba _]]]]. destruct (term_guards b Hb) as [Nb [_ [_ [Bb _]]]].
  rewrite Na, Nb, Ba, Bb. cbn [orb andb]. rewrite orb_false_r.
  destruct (expr_eqb a b) eqn:E.
  - left. exists true. apply expr_eqb_term in E; auto. subst b. auto using Qeq_bool_refl.
  - destruct (is_num a && is_num b) eqn:Nn.
    + left. exists false. repeat split. intros rho.
      destruct a; try discriminate Nn; destruct b; try discriminate Nn. apply num_neq_val; auto.
    + right. destruct (expr_cmp a b =? 1)%Z; [exists b, a|exists a, b]; auto.
Qed.

Lemma mk_Eq_sound : forall a b, term_ok a = true -> term_ok b = true ->
  formula (mk_Eq a b) = true /\
  forall rho, evalB rho (mk_Eq a b) = Qeq_bool (evalT rho a) (evalT rho b).
Proof.
  intros a b Ha Hb.
  destruct (mk_Eq_Ne_cases a b Ha Hb) as [[v [-> [_ Hv]]]|[x [y [Hxy [-> _]]]]].
  - split; [reflexivity|]. intros rho. symmetry. apply Hv.
  - destruct Hxy as [[-> ->]|[-> ->]]; (split; [apply formula_rel; auto|]); intros rho.
    + reflexivity.
    + apply Qeq_bool_sym.
Qed.

Lemma mk_Ne_sound : forall a b, term_ok a = true -> term_ok b = true ->
  formula (mk_Ne a b) = true /\
  forall rho, evalB rho (mk_Ne a b) = negb (Qeq_bool (evalT rho a) (evalT rho b)).
Proof.
  intros a b Ha Hb.
  destruct (mk_Eq_Ne_cases a b Ha Hb) as [[v [_ [-> Hv]]]|[x [y [Hxy [_ ->]]]]].
  - split; [reflexivity|]. intros rho. cbn [evalB]. rewrite Hv. reflexivity.
  - destruct Hxy as [[-> ->]|[-> ->]]; (split; [apply formula_rel; auto|]); intros rho.
    + reflexivity.
    + cbn [evalB]. unfold eval_rel. cbn. f_equal. apply Qeq_bool_sym.
Qed.

Lemma ineq_guard_term : forall a b, term_ok a = true -> term_ok b = true -> ineq_guard a b = Ok tt.
Proof.
  intros a b Ha Hb. unfold ineq_guard.
  destruct (term_guards a Ha) as [Na [Ca [Za [Ba _]]]]. destruct (term_guards b Hb) as [Nb [Cb [Zb [Bb _]]]].
  rewrite Na, Nb, Ca, Cb, Za, Zb, Ba, Bb. reflexivity.
Qed.

Lemma expr_num_lt_spec : forall x y, num_ok x = true -> num_ok y = true ->
  expr_num_lt (ENum x) (ENum y) = Ok (Qltb (q_of x) (q_of y)).
Proof. intros. unfold expr_num_lt. rewrite num_lt_Qltb by assumption. reflexivity. Qed.

(* LessThan::create and StrictLessThan::create on terms never throw: equal operands and pairs of
   numbers are decided (two different numbers by <), anything else builds the node *)
Lemma mk_Lt_Le_cases : forall a b, term_ok a = true -> term_ok b = true ->
  (a = b /\ mk_Lt a b = Ok (EBool false) /\ mk_Le a b = Ok (EBool true)) \/
  (exists x y, a = ENum x /\ b = ENum y /\ Qeq_bool (q_of x) (q_of y) = false /\
     mk_Lt a b = Ok (EBool (Qltb (q_of x) (q_of y))) /\
     mk_Le a b = Ok (EBool (Qltb (q_of x) (q_of y)))) \/
  (mk_Lt a b = Ok (EF2 TC_StrictLessThan a b) /\ mk_Le a b = Ok (EF2 TC_LessThan a b)).
Proof.
  intros a b Ha Hb. unfold mk_Lt, mk_Le. rewrite ineq_guard_term by assumption. cbn [bind].
  destruct (expr_eqb a b) eqn:E.
  - left. apply expr_eqb_term in E; auto.
  - destruct (is_num a && is_num b) eqn:Nn; [|right; right; auto].
    right; left. destruct a; try discriminate Nn; destruct b; try discriminate Nn.
    rewrite expr_num_lt_spec by assumption. exists n, n0. auto using num_neq_val.
Qed.

Lemma mk_Lt_sound : forall a b r, term_ok a = true -> term_ok b = true -> mk_Lt a b = Ok r ->
  formula r = true /\ forall rho, evalB rho r = Qltb (evalT rho a) (evalT rho b).
Proof.
  intros a b r Ha Hb.
  destruct (mk_Lt_Le_cases a b Ha Hb) as [[<- [-> _]]|[[x [y [-> [-> [_ [-> _]]]]]]|[-> _]]];
    intros H; injection H as <-.
  - split; [reflexivity|]. intros rho. symmetry. apply Qltb_irrefl.
  - split; reflexivity.
  - split; [apply formula_rel; auto|reflexivity].
Qed.

Lemma mk_Le_sound : forall a b r, term_ok a = true -> term_ok b = true -> mk_Le a b = Ok r ->
  formula r = true /\ forall rho, evalB rho r = Qle_bool (evalT rho a) (evalT rho b).
Proof.
  intros a b r Ha Hb.
  destruct (mk_Lt_Le_cases a b Ha Hb) as [[<- [_ ->]]|[[x [y [-> [-> [V [_ ->]]]]]]|[_ ->]]];
    intros H; injection H as <-.
  - split; [reflexivity|]. intros rho. symmetry. apply Qle_bool_refl.
  - split; [reflexivity|]. intros rho. symmetry. apply Qle_bool_neq, V.
  - split; [apply formula_rel; auto|reflexivity].
Qed.

Lemma rel_create_sound : forall c a b r, mem_code c rel_codes = true ->
  term_ok a = true -> term_ok b = true -> rel_create c a b = Ok r ->
  formula r = true /\ forall rho, evalB rho r = eval_rel c (evalT rho a) (evalT rho b).
Proof.
  intros c a b r Hc Ha Hb. apply mem_rel_codes in Hc. unfold rel_create.
  destruct Hc as [->|[->|[->| ->]]]; cbn [N.eqb Pos.eqb TC_Equality TC_Unequality TC_LessThan TC_StrictLessThan].
  - intros H. injection H as <-. apply mk_Eq_sound; auto.
  - intros H. injection H as <-. apply mk_Ne_sound; auto.
  - intros H. apply mk_Le_sound in H; auto.
  - intros H. apply mk_Lt_sound in H; auto.
Qed.

Definition val_in (rho : env) (v : Q) (l : list expr) : bool :=
  existsb (fun x => Qeq_bool (evalT rho x) v) l.

Lemma val_in_cons : forall rho v x l,
  val_in rho v (x :: l) = Qeq_bool (evalT rho x) v || val_in rho v l.
Proof. reflexivity. Qed.

Lemma fset_contains_loop_sound : forall elems a rest, forallb term_ok elems = true ->
  term_ok a = true -> forallb term_ok rest = true ->
  match fset_contains_loop elems a rest with
  | None => forall rho, val_in rho (evalT rho a) elems = true
  | Some rest' => forallb term_ok rest' = true /\
                  forall rho, val_in rho (evalT rho a) rest' =
                              val_in rho (evalT rho a) elems || val_in rho (evalT rho a) rest
  end.
Proof.
  induction elems as [|e r IH]; intros a rest He Ha Hr; cbn [fset_contains_loop].
  - split; auto.
  - cbn [forallb] in He. rewrite andb_true_iff in He. destruct He as [He Hl].
    pose proof (term_frag _ He) as Fe. pose proof (forallb_terms_frag _ Hr) as Fr.
    destruct (mk_Eq_Ne_cases e a He Ha) as [[[] [-> [_ Hf]]]|[x [y [_ [-> _]]]]].
    + intros rho. rewrite val_in_cons, Hf. reflexivity.
    + specialize (IH a rest Hl Ha Hr). destruct (fset_contains_loop r a rest).
      * destruct IH as [I1 I2]. split; auto. intros rho. rewrite I2, val_in_cons, Hf. reflexivity.
      * intros rho. rewrite val_in_cons, Hf. apply IH.
    + assert (Hr' : forallb term_ok (set_insert e rest) = true)
        by (rewrite forallb_set_insert by assumption; rewrite He, Hr; reflexivity).
      specialize (IH a (set_insert e rest) Hl Ha Hr'). destruct (fset_contains_loop r a (set_insert e rest)).
      * destruct IH as [I1 I2]. split; auto. intros rho. rewrite I2, val_in_cons. unfold val_in.
        rewrite existsb_set_insert by assumption.
        destruct (Qeq_bool (evalT rho e) (evalT rho a)), (existsb _ r), (existsb _ rest); reflexivity.
      * intros rho. rewrite val_in_cons, IH. apply orb_true_r.
Qed.

Lemma formula_contains : forall a s, term_ok a = true -> set_ok s = true ->
  formula (ELex TC_Contains a s) = true.
Proof. intros. cbn [formula]. rewrite H, H0. reflexivity. Qed.

Lemma set_ok_finiteset : forall l, forallb term_ok l = true -> set_ok (finiteset l) = true.
Proof. destruct l; cbn; auto. Qed.

Lemma evalS_finiteset : forall rho l v, evalS rho (finiteset l) v = val_in rho v l.
Proof. destruct l; reflexivity. Qed.

Lemma fset_contains_sound : forall elems a, forallb term_ok elems = true -> term_ok a = true ->
  formula (fset_contains elems a) = true /\
  forall rho, evalB rho (fset_contains elems a) = val_in rho (evalT rho a) elems.
Proof.
  intros elems a He Ha. unfold fset_contains.
  pose proof (fset_contains_loop_sound elems a [] He Ha eq_refl) as H.
  destruct (fset_contains_loop elems a []) as [rest|].
  - destruct H as [H1 H2]. destruct rest as [|x rest].
    + split; [reflexivity|]. intros rho. specialize (H2 rho). cbn [evalB].
      unfold val_in at 1 3 in H2. cbn [existsb] in H2. rewrite orb_false_r in H2. auto.
    + split; [apply formula_contains; auto; apply set_ok_finiteset; auto|].
      intros rho. cbn [evalB]. rewrite evalS_finiteset, H2. unfold val_in at 2. cbn [existsb].
      apply orb_false_r.
  - split; [reflexivity|]. intros rho. symmetry. apply H.
Qed.

Lemma interval_ordered_lt : forall x y, num_ok x = true -> num_ok y = true ->
  interval_ordered (ENum x) (ENum y) = true -> Qltb (q_of x) (q_of y) = true.
Proof.
  intros x y Hx Hy. unfold interval_ordered. rewrite num_lt_Qltb by assumption.
  destruct (Qltb (q_of x) (q_of y)); auto.
Qed.

Lemma Qltb_le : forall x y, Qltb x y = true -> Qle_bool x y = true.
Proof. intros x y H. apply Qltb_iff in H. apply Qle_bool_iff. apply Qlt_le_weak. assumption. Qed.

(* membership in an interval with start < end: at an endpoint its own side decides, elsewhere
   the strict comparisons do *)
Lemma evalS_endpoints : forall rho x y lo ro, Qltb (q_of x) (q_of y) = true ->
  evalS rho (EInterval (ENum x) (ENum y) lo ro) (q_of x) = negb lo /\
  evalS rho (EInterval (ENum x) (ENum y) lo ro) (q_of y) = negb ro.
Proof.
  intros rho x y lo ro Hlt. cbn [evalS evalT].
  rewrite !Qltb_irrefl, !Qle_bool_refl, Hlt, (Qltb_le _ _ Hlt). destruct lo, ro; split; reflexivity.
Qed.

Lemma evalS_inside : forall rho x y lo ro v,
  Qeq_bool (q_of x) v = false -> Qeq_bool (q_of y) v = false ->
  evalS rho (EInterval (ENum x) (ENum y) lo ro) v = Qltb (q_of x) v && Qltb v (q_of y).
Proof.
  intros rho x y lo ro v V1 V2. cbn [evalS evalT]. rewrite (Qle_bool_neq _ _ V1).
  rewrite Qeq_bool_sym in V2. rewrite (Qle_bool_neq _ _ V2). destruct lo, ro; reflexivity.
Qed.

Lemma interval_contains_sound : forall x y lo ro a r, num_ok x = true -> num_ok y = true ->
  interval_ordered (ENum x) (ENum y) = true -> term_ok a = true ->
  interval_contains (ENum x) (ENum y) lo ro a = Ok r ->
  formula r = true /\
  forall rho, evalB rho r = evalS rho (EInterval (ENum x) (ENum y) lo ro) (evalT rho a).
Proof.
  intros x y lo ro a r Hx Hy Ho Ha. pose proof (interval_ordered_lt _ _ Hx Hy Ho) as Hlt.
  unfold interval_contains. destruct (term_cases a Ha) as [[v [-> Hv]]|[nm ->]]; cbn [is_num negb is_set].
  - destruct (expr_eqb (ENum x) (ENum v)) eqn:E1; [|destruct (expr_eqb (ENum y) (ENum v)) eqn:E2].
    + apply expr_eqb_true in E1; auto. injection E1 as <-. intros H. injection H as <-.
      split; [reflexivity|]. intros rho. symmetry. apply (evalS_endpoints rho x y lo ro Hlt).
    + apply expr_eqb_true in E2; auto. injection E2 as <-. intros H. injection H as <-.
      split; [reflexivity|]. intros rho. symmetry. apply (evalS_endpoints rho x y lo ro Hlt).
    + rewrite !expr_num_lt_spec by assumption. cbn [bind].
      assert (R : forall rho, evalS rho (EInterval (ENum x) (ENum y) lo ro) (q_of v) =
                              Qltb (q_of x) (q_of v) && Qltb (q_of v) (q_of y))
        by (intros rho; apply evalS_inside; apply num_neq_val; assumption).
      destruct (Qltb (q_of v) (q_of y)), (Qltb (q_of x) (q_of v)); cbn [negb];
        intros H; injection H as <-; (split; [reflexivity|]); intros rho; cbn [evalT]; rewrite R; reflexivity.
  - intros H. injection H as <-. split; [|reflexivity]. apply formula_contains; [reflexivity|].
    cbn [set_ok numlit_ok]. rewrite Hx, Hy, Ho. reflexivity.
Qed.

Lemma set_contains_sound : forall s a r, set_ok s = true -> term_ok a = true ->
  set_contains s a = Ok r ->
  formula r = true /\ forall rho, evalB rho r = evalS rho s (evalT rho a).
Proof.
  intros s a r Hs Ha. destruct (set_inv s Hs) as [x y lo ro Hx Hy Ho|l Hl|c Hc]; cbn [set_contains].
  - apply interval_contains_sound; assumption.
  - rewrite N.eqb_refl. intros H. injection H as <-. exact (fset_contains_sound l a Hl Ha).
  - destruct Hc as [->| ->]; cbn [N.eqb Pos.eqb TC_EmptySet TC_UniversalSet];
      intros H; injection H as <-; split; reflexivity.
Qed.

Theorem contains_sound : forall e s r, term_ok e = true -> set_ok s = true -> contains e s = Ok r ->
  formula r = true /\ forall rho, evalB rho r = evalS rho s (evalT rho e).
Proof.
  intros e s r He Hs. unfold contains.
  destruct (term_guards e He) as [_ [_ [_ [_ Se]]]]. rewrite Se, orb_false_r.
  destruct (is_num e).
  - apply set_contains_sound; auto.
  - intros H. injection H as <-. split; [apply formula_contains; auto|reflexivity].
Qed.

Lemma formula_children : forall c l, formula (EFN c l) = true -> forallb formula l = true.
Proof. cbn [formula]. intros c l. rewrite andb_true_iff. tauto. Qed.

Lemma forallb_map : forall (A B : Type) (f : A -> B) (p : B -> bool) l,
  forallb p (map f l) = forallb (fun x => p (f x)) l.
Proof. induction l; cbn; auto. rewrite IHl. reflexivity. Qed.

Lemma existsb_map : forall (A B : Type) (f : A -> B) (p : B -> bool) l,
  existsb p (map f l) = existsb (fun x => p (f x)) l.
Proof. induction l; cbn; auto. rewrite IHl. reflexivity. Qed.

Lemma forallb_ext_in : forall (A : Type) (p q : A -> bool) l,
  (forall x, In x l -> p x = q x) -> forallb p l = forallb q l.
Proof.
  induction l; cbn; auto. intros H. rewrite H by auto. rewrite IHl; auto.
Qed.

Lemma existsb_ext_in : forall (A : Type) (p q : A -> bool) l,
  (forall x, In x l -> p x = q x) -> existsb p l = existsb q l.
Proof.
  induction l; cbn; auto. intros H. rewrite H by auto. rewrite IHl; auto.
Qed.

Lemma negb_forallb : forall (A : Type) (p : A -> bool) l,
  negb (forallb p l) = existsb (fun x => negb (p x)) l.
Proof. induction l; cbn; auto. rewrite negb_andb, IHl. reflexivity. Qed.

Lemma negb_existsb : forall (A : Type) (p : A -> bool) l,
  negb (existsb p l) = forallb (fun x => negb (p x)) l.
Proof. induction l; cbn; auto. rewrite negb_orb, IHl. reflexivity. Qed.

Theorem lnot_sound : forall e, formula e = true ->
  formula (lnot e) = true /\ forall rho, evalB rho (lnot e) = negb (evalB rho e).
Proof.
  induction e as [e IH] using expr_size_ind. intros He.
  destruct (formula_inv e He) as [b|a Ha|c a b Hc Ha Hb|a s Ha Hs|c l Hc Hl].
  - split; reflexivity.
  - split; [exact Ha|]. intros rho. cbn [evalB]. rewrite negb_involutive. reflexivity.
  - apply mem_rel_codes in Hc. destruct Hc as [->|[->|[->| ->]]]; cbn [lnot N.eqb Pos.eqb
      TC_Equality TC_Unequality TC_LessThan TC_StrictLessThan];
      (split; [apply formula_rel; auto|]); intros rho; cbn [evalB]; unfold eval_rel, Qltb; cbn;
      rewrite ?negb_involutive; reflexivity.
  - split; [cbn [lnot formula] in *; rewrite He; reflexivity|reflexivity].
  - (* De Morgan on the container; Xor is wrapped in Not *)
    assert (IHl : forall x, In x l -> formula (lnot x) = true /\
                                      forall rho, evalB rho (lnot x) = negb (evalB rho x)).
    { intros x Hx. apply IH; [|eapply forallb_In; eauto]. apply in_list_size in Hx. cbn [size]. lia. }
    assert (Fm : forallb formula (map lnot l) = true).
    { rewrite forallb_map. rewrite forallb_forall. intros x Hx. apply IHl; auto. }
    pose proof (forallb_formula_frag _ Fm) as Fr.
    destruct Hc as [->|[->| ->]]; cbn [lnot N.eqb Pos.eqb TC_And TC_Or TC_Xor].
    + split.
      * cbn [formula]. rewrite forallb_set_of_list by auto. rewrite Fm. reflexivity.
      * intros rho. cbn [evalB N.eqb Pos.eqb TC_And TC_Or]. rewrite existsb_set_of_list by auto.
        rewrite existsb_map, negb_forallb. apply existsb_ext_in. intros x Hx. apply IHl; auto.
    + split.
      * cbn [formula]. rewrite forallb_set_of_list by auto. rewrite Fm. reflexivity.
      * intros rho. cbn [evalB N.eqb Pos.eqb TC_And TC_Or]. rewrite forallb_set_of_list by auto.
        rewrite forallb_map, negb_existsb. apply forallb_ext_in. intros x Hx. apply IHl; auto.
    + split; [|reflexivity]. cbn [formula]. cbn [N.eqb Pos.eqb TC_Not TC_Xor TC_And TC_Or orb andb]. exact Hl.
Qed.
