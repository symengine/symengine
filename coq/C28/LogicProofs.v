(* C28 -- the truth-value theorems: logical_xor, and_or (flattening, constants, complementary
   literals, the Contains(sym, FiniteSet) domain simplification), the subs visitor on boolean
   trees, nand / nor / xnor, piecewise.  All statements are for ALL formulas of the fragment, ALL
   assignments, every argument order (no sortedness of the argument containers is assumed) and
   every fuel value. *)
From SE Require Export C28.LogicAtoms.
From SE Require Import Expr.NumProofs.
From Coq Require Import Lia.
Local Open Scope N_scope.

Definition st_val (rho : env) (st : list expr * N) : bool :=
  xorb (N.odd (snd st)) (xor_all (map (evalB rho) (fst st))).
Definition st_ok (st : list expr * N) : Prop := forallb formula (fst st) = true.

Lemma N_odd_add1 : forall n, N.odd (n + 1) = negb (N.odd n).
Proof. intros. rewrite N.add_1_r, N.odd_succ, <- N.negb_odd. reflexivity. Qed.

Lemma xor_step_sound : forall st a, st_ok st -> formula a = true ->
  st_ok (xor_step st a) /\
  forall rho, st_val rho (xor_step st a) = xorb (st_val rho st) (evalB rho a).
Proof.
  intros [args nots] a Hs Ha. unfold st_ok in *. cbn [fst] in Hs. unfold xor_step.
  pose proof (forallb_formula_frag _ Hs) as Hf. pose proof (formula_frag _ Ha) as Fa.
  destruct (lnot_sound a Ha) as [Hn En]. pose proof (formula_frag _ Hn) as Fn.
  destruct (set_mem a args) eqn:M1.
  - split; [cbn [fst]; apply forallb_set_erase; auto|].
    intros rho. unfold st_val. cbn [fst snd]. rewrite xor_set_erase by auto.
    destruct (N.odd nots), (evalB rho a), (xor_all (map (evalB rho) args)); reflexivity.
  - destruct (set_mem (lnot a) args) eqn:M2.
    + split; [cbn [fst]; apply forallb_set_erase; auto|].
      intros rho. unfold st_val. cbn [fst snd]. rewrite xor_set_erase by auto.
      rewrite N_odd_add1, En.
      destruct (N.odd nots), (evalB rho a), (xor_all (map (evalB rho) args)); reflexivity.
    + split; [cbn [fst]; rewrite forallb_set_insert by auto; rewrite Ha, Hs; reflexivity|].
      intros rho. unfold st_val. cbn [fst snd]. rewrite xor_set_insert_new by auto.
      destruct (N.odd nots), (evalB rho a), (xor_all (map (evalB rho) args)); reflexivity.
Qed.

(* a fold of a step that xors one more truth value into the state *)
Lemma xor_fold_sound : forall step : list expr * N -> expr -> list expr * N,
  (forall st a, st_ok st -> formula a = true ->
     st_ok (step st a) /\ forall rho, st_val rho (step st a) = xorb (st_val rho st) (evalB rho a)) ->
  forall l st, st_ok st -> forallb formula l = true ->
  st_ok (fold_left step l st) /\
  forall rho, st_val rho (fold_left step l st) = xorb (st_val rho st) (xor_all (map (evalB rho) l)).
Proof.
  intros step Hstep. induction l as [|a l IH]; intros st Hs Hl; cbn [fold_left map].
  - split; auto. intros. unfold xor_all. cbn. rewrite xorb_false_r. reflexivity.
  - cbn [forallb] in Hl. rewrite andb_true_iff in Hl. destruct Hl as [Ha Hl].
    destruct (Hstep st a Hs Ha) as [S1 E1]. destruct (IH _ S1 Hl) as [S2 E2].
    split; auto. intros rho. rewrite E2, E1. unfold xor_all. cbn [fold_right]. apply xorb_assoc.
Qed.

Lemma evalB_Xor : forall rho l, evalB rho (EFN TC_Xor l) = xor_all (map (evalB rho) l).
Proof. reflexivity. Qed.
Lemma evalB_And : forall rho l, evalB rho (EFN TC_And l) = forallb (evalB rho) l.
Proof. reflexivity. Qed.
Lemma evalB_Or : forall rho l, evalB rho (EFN TC_Or l) = existsb (evalB rho) l.
Proof. reflexivity. Qed.

Lemma xor_arg_sound : forall st a, st_ok st -> formula a = true ->
  st_ok (xor_arg st a) /\
  forall rho, st_val rho (xor_arg st a) = xorb (st_val rho st) (evalB rho a).
Proof.
  intros st a Hs Ha.
  destruct (formula_inv a Ha) as [b|a' Ha'|c x y Hc Hx Hy|x s Hx Hs'|c l Hc Hl];
    try (apply xor_step_sound; assumption).
  - cbn [xor_arg]. split; [exact Hs|]. intros rho. unfold st_val. cbn [fst snd evalB].
    destruct b.
    + rewrite N_odd_add1. destruct (N.odd (snd st)), (xor_all (map (evalB rho) (fst st))); reflexivity.
    + rewrite xorb_false_r. reflexivity.
  - (* a nested Xor is flattened *)
    cbn [xor_arg]. destruct (c =? TC_Xor) eqn:E; [|apply xor_step_sound; assumption].
    apply N.eqb_eq in E. subst c. apply (xor_fold_sound xor_step xor_step_sound); assumption.
Qed.

Lemma formula_Xor : forall l, forallb formula l = true -> formula (EFN TC_Xor l) = true.
Proof. intros. cbn [formula]. rewrite H. reflexivity. Qed.
Lemma formula_And : forall l, forallb formula l = true -> formula (EFN TC_And l) = true.
Proof. intros. cbn [formula]. rewrite H. reflexivity. Qed.
Lemma formula_Or : forall l, forallb formula l = true -> formula (EFN TC_Or l) = true.
Proof. intros. cbn [formula]. rewrite H. reflexivity. Qed.
Lemma formula_Not : forall a, formula a = true -> formula (EF1 TC_Not a) = true.
Proof. intros. cbn [formula]. rewrite H. reflexivity. Qed.

(* what logical_xor returns for an even number of negations; for an odd number it returns logical_not of it *)
Definition xor_body (args : list expr) : expr :=
  match args with [] => EBool false | [a] => a | _ => EFN TC_Xor args end.

Lemma xor_finish_eq : forall args nots,
  xor_finish (args, nots) = if N.even nots then xor_body args else lnot (xor_body args).
Proof. intros [|a [|b r]] nots; cbn [xor_finish xor_body]; destruct (N.even nots); reflexivity. Qed.

Lemma xor_body_sound : forall args, forallb formula args = true ->
  formula (xor_body args) = true /\ forall rho, evalB rho (xor_body args) = xor_all (map (evalB rho) args).
Proof.
  intros [|a [|b r]] Hs; cbn [xor_body].
  - split; reflexivity.
  - cbn [forallb] in Hs. rewrite andb_true_r in Hs. split; [exact Hs|]. intros rho.
    unfold xor_all. cbn [map fold_right]. symmetry. apply xorb_false_r.
  - split; [apply formula_Xor; exact Hs|]. intros rho. reflexivity.
Qed.

Lemma xor_finish_sound : forall st, st_ok st ->
  formula (xor_finish st) = true /\ forall rho, evalB rho (xor_finish st) = st_val rho st.
Proof.
  intros [args nots] Hs. destruct (xor_body_sound args Hs) as [F E].
  rewrite xor_finish_eq. unfold st_val. cbn [fst snd]. rewrite <- N.negb_odd. destruct (N.odd nots); cbn [negb].
  - destruct (lnot_sound _ F) as [F' E']. split; [exact F'|]. intros rho. rewrite E', E.
    destruct (xor_all (map (evalB rho) args)); reflexivity.
  - split; [exact F|]. intros rho. rewrite E. destruct (xor_all (map (evalB rho) args)); reflexivity.
Qed.

Theorem logical_xor_sound : forall s, forallb formula s = true ->
  formula (logical_xor s) = true /\
  forall rho, evalB rho (logical_xor s) = xor_all (map (evalB rho) s).
Proof.
  intros s Hs. unfold logical_xor.
  assert (H0 : st_ok ([], 0)) by reflexivity.
  destruct (xor_fold_sound xor_arg xor_arg_sound s _ H0 Hs) as [S E]. destruct (xor_finish_sound _ S) as [F V].
  split; auto. intros rho. rewrite V, E. unfold st_val. cbn [fst snd map].
  destruct (xor_all (map (evalB rho) s)); reflexivity.
Qed.

Theorem logical_xnor_sound : forall s, forallb formula s = true ->
  formula (logical_xnor s) = true /\
  forall rho, evalB rho (logical_xnor s) = negb (xor_all (map (evalB rho) s)).
Proof.
  intros s Hs. unfold logical_xnor. destruct (logical_xor_sound s Hs) as [F E].
  destruct (lnot_sound _ F) as [F' E']. split; auto. intros rho. rewrite E', E. reflexivity.
Qed.

Definition upd (rho : env) (nm : list N) (q : Q) : env :=
  fun s => if bytes_eqb s nm then q else rho s.

Definition env_eq (r1 r2 : env) : Prop := forall s, r1 s == r2 s.

Lemma evalT_ext : forall r1 r2 e, env_eq r1 r2 -> evalT r1 e == evalT r2 e.
Proof. intros r1 r2 e H. destruct e; cbn [evalT]; try reflexivity. apply H. Qed.

Lemma existsb_ext : forall (A : Type) (p q : A -> bool) l, (forall x, p x = q x) -> existsb p l = existsb q l.
Proof. intros. apply existsb_ext_in. auto. Qed.

Lemma evalS_ext : forall r1 r2 s v1 v2, env_eq r1 r2 -> v1 == v2 -> evalS r1 s v1 = evalS r2 s v2.
Proof.
  intros r1 r2 s v1 v2 H Hv. destruct s; cbn [evalS]; try reflexivity.
  - apply existsb_ext. intros x. apply Qeqb_comp; auto using evalT_ext.
  - unfold Qltb.
    rewrite (Qleb_comp _ _ Hv _ _ (evalT_ext r1 r2 s1 H)), (Qleb_comp _ _ (evalT_ext r1 r2 s1 H) _ _ Hv),
            (Qleb_comp _ _ Hv _ _ (evalT_ext r1 r2 s2 H)), (Qleb_comp _ _ (evalT_ext r1 r2 s2 H) _ _ Hv).
    reflexivity.
Qed.

Lemma evalB_ext : forall r1 r2 e, env_eq r1 r2 -> evalB r1 e = evalB r2 e.
Proof.
  intros r1 r2 e H. induction e using expr_size_ind. destruct e; cbn [evalB]; try reflexivity.
  - f_equal. apply H0. cbn [size]. lia.
  - unfold eval_rel, Qltb.
    rewrite (Qeqb_comp _ _ (evalT_ext r1 r2 e1 H) _ _ (evalT_ext r1 r2 e2 H)),
            (Qleb_comp _ _ (evalT_ext r1 r2 e1 H) _ _ (evalT_ext r1 r2 e2 H)),
            (Qleb_comp _ _ (evalT_ext r1 r2 e2 H) _ _ (evalT_ext r1 r2 e1 H)).
    reflexivity.
  - assert (E : forall x, In x args -> evalB r1 x = evalB r2 x).
    { intros x Hx. apply H0. apply in_list_size in Hx. cbn [size]. lia. }
    destruct (code =? TC_And); [apply forallb_ext_in; auto|].
    destruct (code =? TC_Or); [apply existsb_ext_in; auto|].
    f_equal. apply map_ext_in. auto.
  - apply evalS_ext; auto using evalT_ext.
Qed.

Lemma upd_same : forall rho nm q, upd rho nm q nm = q.
Proof. intros. unfold upd. rewrite bytes_eqb_refl. reflexivity. Qed.

Lemma upd_other : forall rho nm q s, s <> nm -> upd rho nm q s = rho s.
Proof.
  intros. unfold upd. destruct (bytes_eqb s nm) eqn:E; auto. apply bytes_eqb_eq in E. contradiction.
Qed.

(* overwriting a symbol with (something equal to) its own value changes nothing *)
Lemma upd_self : forall rho nm q, q == rho nm -> env_eq (upd rho nm q) rho.
Proof.
  intros rho nm q H s. unfold upd. destruct (bytes_eqb s nm) eqn:E; [|reflexivity].
  apply bytes_eqb_eq in E. subst. assumption.
Qed.

(* and_or<And> / and_or<Or> are treated at once: [agg is_or] is the connective over a list of
   formulas, [comb is_or] its binary form, [is_or] itself the absorbing truth value *)
Definition agg (is_or : bool) (rho : env) (l : list expr) : bool :=
  if is_or then existsb (evalB rho) l else forallb (evalB rho) l.
Definition comb (is_or : bool) (x y : bool) : bool := if is_or then x || y else x && y.

Lemma agg_set_insert : forall is_or rho k s, frag k = true -> forallb frag s = true ->
  agg is_or rho (set_insert k s) = comb is_or (evalB rho k) (agg is_or rho s).
Proof.
  intros [] rho k s Hk Hs; unfold agg, comb.
  - apply existsb_set_insert; auto.
  - apply forallb_set_insert; auto.
Qed.

Lemma agg_set_insert_all : forall is_or rho l s, forallb frag l = true -> forallb frag s = true ->
  agg is_or rho (set_insert_all l s) = comb is_or (agg is_or rho l) (agg is_or rho s).
Proof.
  intros [] rho l s Hl Hs; unfold agg, comb.
  - apply existsb_set_insert_all; auto.
  - apply forallb_set_insert_all; auto.
Qed.

Lemma agg_cons : forall is_or rho a l, agg is_or rho (a :: l) = comb is_or (evalB rho a) (agg is_or rho l).
Proof. intros []; reflexivity. Qed.

Lemma agg_set_of_list : forall is_or rho l, forallb frag l = true ->
  agg is_or rho (set_of_list l) = agg is_or rho l.
Proof. intros [] rho l H; [apply existsb_set_of_list|apply forallb_set_of_list]; exact H. Qed.

Lemma forallb_of_map : forall (A : Type) (p : A -> bool) l, forallb p l = forallb (fun b => b) (map p l).
Proof. induction l; cbn; auto. rewrite IHl. reflexivity. Qed.
Lemma existsb_of_map : forall (A : Type) (p : A -> bool) l, existsb p l = existsb (fun b => b) (map p l).
Proof. induction l; cbn; auto. rewrite IHl. reflexivity. Qed.

(* [agg] sees only the list of truth values *)
Lemma agg_map : forall is_or r1 r2 l1 l2, map (evalB r1) l1 = map (evalB r2) l2 ->
  agg is_or r1 l1 = agg is_or r2 l2.
Proof.
  intros is_or r1 r2 l1 l2 H. unfold agg. destruct is_or.
  - rewrite (existsb_of_map _ (evalB r1)), (existsb_of_map _ (evalB r2)), H. reflexivity.
  - rewrite (forallb_of_map _ (evalB r1)), (forallb_of_map _ (evalB r2)), H. reflexivity.
Qed.

Lemma ao_collect_sound : forall is_or s args0,
  forallb formula s = true -> forallb formula args0 = true ->
  match ao_collect is_or s args0 with
  | None => forall rho, agg is_or rho s = is_or
  | Some args => forallb formula args = true /\
                 forall rho, agg is_or rho args = comb is_or (agg is_or rho s) (agg is_or rho args0)
  end.
Proof.
  intros is_or. induction s as [|a r IH]; intros args0 Hs H0; cbn [ao_collect].
  - split; auto. intros rho. destruct is_or; reflexivity.
  - cbn [forallb] in Hs. rewrite andb_true_iff in Hs. destruct Hs as [Ha Hr].
    pose proof (forallb_formula_frag _ H0) as F0. pose proof (formula_frag _ Ha) as Fa.
    (* whatever [a] adds to the collected members has, together, the value of [a] *)
    assert (Step : forall acc, forallb formula acc = true ->
      (forall rho, agg is_or rho acc = comb is_or (evalB rho a) (agg is_or rho args0)) ->
      match ao_collect is_or r acc with
      | None => forall rho, agg is_or rho (a :: r) = is_or
      | Some args => forallb formula args = true /\
                     forall rho, agg is_or rho args =
                                 comb is_or (agg is_or rho (a :: r)) (agg is_or rho args0)
      end).
    { intros acc H1 E1. specialize (IH acc Hr H1). destruct (ao_collect is_or r acc).
      - destruct IH as [I1 I2]. split; auto. intros rho. rewrite I2, E1, agg_cons.
        destruct is_or; cbn [comb];
          destruct (agg _ rho r), (evalB rho a), (agg _ rho args0); reflexivity.
      - intros rho. rewrite agg_cons, IH. destruct is_or; cbn [comb];
          destruct (evalB rho a); reflexivity. }
    (* the default: [a] itself is inserted *)
    pose proof (Step (set_insert a args0)) as Generic.
    rewrite forallb_set_insert, Ha, H0 in Generic by assumption.
    specialize (Generic eq_refl (fun rho => agg_set_insert is_or rho a args0 Fa F0)).
    destruct (formula_inv a Ha) as [b|a' Ha'|c x y Hc Hx Hy|x s Hx Hs|c l Hc Hl]; try exact Generic.
    + (* a constant: absorbing, or dropped *)
      destruct (Bool.eqb b is_or) eqn:E.
      * apply Bool.eqb_prop in E. subst b. intros rho. rewrite agg_cons. cbn [evalB].
        destruct is_or; reflexivity.
      * apply Step; [exact H0|]. intros rho. cbn [evalB].
        destruct is_or, b; try discriminate E; reflexivity.
    + (* the same connective: flattened *)
      destruct (c =? (if is_or then TC_Or else TC_And)) eqn:E; [|exact Generic].
      apply N.eqb_eq in E. pose proof (forallb_formula_frag _ Hl) as Fl.
      apply Step; [rewrite forallb_set_insert_all by assumption; rewrite Hl, H0; reflexivity|].
      intros rho. rewrite agg_set_insert_all by assumption. subst c. destruct is_or; reflexivity.
Qed.

Lemma has_compl_sound : forall is_or args, forallb formula args = true -> has_compl args = true ->
  forall rho, agg is_or rho args = is_or.
Proof.
  intros is_or args Hf H rho. unfold has_compl in H. apply existsb_exists in H.
  destruct H as [a [Ha Hm]]. pose proof (forallb_In _ _ _ _ Hf Ha) as Fa.
  destruct (lnot_sound a Fa) as [Fn En].
  apply set_mem_In in Hm; auto using formula_frag, forallb_formula_frag.
  unfold agg. destruct is_or.
  - apply existsb_exists. destruct (evalB rho a) eqn:E.
    + exists a. auto.
    + exists (lnot a). split; auto. rewrite En, E. reflexivity.
  - apply not_true_is_false. intros H. rewrite forallb_forall in H.
    pose proof (H a Ha) as H1. pose proof (H _ Hm) as H2. rewrite En, H1 in H2. discriminate.
Qed.

Lemma ao_finish_sound : forall is_or args, forallb formula args = true ->
  formula (ao_finish is_or args) = true /\
  forall rho, evalB rho (ao_finish is_or args) = agg is_or rho args.
Proof.
  intros is_or args H. unfold ao_finish. destruct args as [|a [|b r]].
  - split; [reflexivity|]. intros rho. destruct is_or; reflexivity.
  - cbn [forallb] in H. rewrite andb_true_r in H. split; auto. intros rho.
    destruct is_or; cbn; [rewrite orb_false_r|rewrite andb_true_r]; reflexivity.
  - destruct is_or.
    + split; [apply formula_Or; auto|]. intros; reflexivity.
    + split; [apply formula_And; auto|]. intros; reflexivity.
Qed.

Definition AO_spec (is_or : bool) (F : list expr -> res expr) : Prop :=
  forall s r, forallb formula s = true -> F s = Ok r ->
    formula r = true /\ forall rho, evalB rho r = agg is_or rho s.

(* e[sym := v] = r : the three syntactic classes *)
Definition P3 (nm : list N) (v e r : expr) : Prop :=
  (term_ok e = true -> term_ok r = true /\
     forall rho, evalT rho r = evalT (upd rho nm (evalT rho v)) e) /\
  (set_ok e = true -> set_ok r = true /\
     forall rho q, evalS rho r q = evalS (upd rho nm (evalT rho v)) e q) /\
  (formula e = true -> formula r = true /\
     forall rho, evalB rho r = evalB (upd rho nm (evalT rho v)) e).

Definition SUBS_spec (SUBS : expr -> expr -> expr -> res expr) : Prop :=
  forall nm v e r, term_ok v = true -> SUBS (ESym nm) v e = Ok r -> P3 nm v e r.

Lemma present_contains_sound : forall present nm, forallb term_ok present = true ->
  formula (present_contains present (ESym nm)) = true /\
  forall rho, evalB rho (present_contains present (ESym nm)) = val_in rho (rho nm) present.
Proof.
  intros present nm H. destruct present as [|x l].
  - split; reflexivity.
  - unfold present_contains. destruct (fset_contains_sound (x :: l) (ESym nm) H eq_refl) as [F E].
    split; auto.
Qed.

(* substituting a value the symbol already has changes nothing *)
Lemma upd_hit : forall rho nm e f, Qeq_bool (evalT rho e) (rho nm) = true ->
  evalB (upd rho nm (evalT rho e)) f = evalB rho f.
Proof. intros. apply evalB_ext. apply upd_self. apply Qeq_bool_eq. assumption. Qed.

(* what the loop over the elements of the FiniteSet leaves, read through membership of the symbol's value: where
   the rest condition holds nothing is lost, and if every kept element decided it, it holds on them *)
Definition dom_post (nm : list N) (restCond : expr) (fset present0 : list expr) (se0 : bool)
    (present : list expr) (se : bool) : Prop :=
  forallb term_ok present = true /\
  (forall rho, evalB rho restCond = true ->
     val_in rho (rho nm) present = val_in rho (rho nm) fset || val_in rho (rho nm) present0) /\
  (se = false -> se0 = false /\
     forall rho, val_in rho (rho nm) present = true ->
                 evalB rho restCond = true \/ val_in rho (rho nm) present0 = true).

Section Dom.
  Variable AND : list expr -> res expr.
  Variable SUBS : expr -> expr -> expr -> res expr.
  Hypothesis HAND : AO_spec false AND.
  Hypothesis HSUBS : SUBS_spec SUBS.

  Lemma dom_elems_sound : forall nm restCond fset present0 se0 present se,
    formula restCond = true -> forallb term_ok fset = true -> forallb term_ok present0 = true ->
    dom_elems SUBS (ESym nm) restCond fset present0 se0 = Ok (present, se) ->
    dom_post nm restCond fset present0 se0 present se.
  Proof using HSUBS.
    intros nm restCond. unfold dom_post. induction fset as [|e r IH]; intros present0 se0 present se Hrc Hf Hp; cbn [dom_elems].
    - intros H. injection H as <- <-. repeat split; auto.
    - cbn [forallb] in Hf. rewrite andb_true_iff in Hf. destruct Hf as [He Hr].
      destruct (SUBS (ESym nm) e restCond) as [c| | |] eqn:Sc; cbn [bind]; try discriminate.
      destruct (proj2 (proj2 (HSUBS nm e restCond c He Sc)) Hrc) as [Fc Ec].
      pose proof (term_frag _ He) as Fe. pose proof (forallb_terms_frag _ Hp) as Fp.
      assert (Hp' : forallb term_ok (set_insert e present0) = true)
        by (rewrite forallb_set_insert by assumption; rewrite He, Hp; reflexivity).
      assert (Vi : forall rho, val_in rho (rho nm) (set_insert e present0) =
                               Qeq_bool (evalT rho e) (rho nm) || val_in rho (rho nm) present0)
        by (intros rho; apply existsb_set_insert; assumption).
      assert (Ins : forall se1,
        (se1 = se0 /\ forall rho, evalB (upd rho nm (evalT rho e)) restCond = true) \/ se1 = true ->
        dom_elems SUBS (ESym nm) restCond r (set_insert e present0) se1 = Ok (present, se) ->
        dom_post nm restCond (e :: r) present0 se0 present se).
      { intros se1 Hse1 H. unfold dom_post. destruct (IH _ _ _ _ Hrc Hr Hp' H) as [I1 [I2 I3]]. split; [exact I1|]. split.
        - intros rho Hrho. rewrite (I2 rho Hrho), Vi, val_in_cons.
          destruct (Qeq_bool (evalT rho e) (rho nm)), (val_in _ _ r), (val_in _ _ present0); reflexivity.
        - intros Hse. destruct (I3 Hse) as [-> I4]. destruct Hse1 as [[<- Ht]|]; [|discriminate].
          split; [reflexivity|]. intros rho Hv. destruct (I4 rho Hv) as [Hl|Hl]; [left; exact Hl|].
          rewrite Vi in Hl. destruct (Qeq_bool (evalT rho e) (rho nm)) eqn:Hq; [left|right; exact Hl].
          rewrite <- (upd_hit rho nm e restCond Hq). apply Ht. }
      destruct c; try (apply Ins; right; reflexivity).
      destruct b.
      + apply Ins. left. split; [reflexivity|]. intros rho. rewrite <- Ec. reflexivity.
      + (* dropped: with the symbol at [e] the rest condition is false *)
        intros H. destruct (IH _ _ _ _ Hrc Hr Hp H) as [I1 [I2 I3]]. split; [exact I1|]. split; [|exact I3].
        intros rho Hrho. rewrite (I2 rho Hrho), val_in_cons.
        destruct (Qeq_bool (evalT rho e) (rho nm)) eqn:Hq; [|reflexivity].
        rewrite <- (upd_hit rho nm e restCond Hq), <- Ec in Hrho. discriminate Hrho.
  Qed.

  Lemma dom_loop_sound : forall args its e,
    forallb formula args = true -> (forall x, In x its -> In x args) ->
    dom_loop AND SUBS args its = Ok (Some e) ->
    formula e = true /\ forall rho, evalB rho e = forallb (evalB rho) args.
  Proof using HAND HSUBS.
    intros args. induction its as [|it r IH]; intros e Hf Hsub; cbn [dom_loop]; [discriminate|].
    assert (Hr : forall x, In x r -> In x args) by (intros; apply Hsub; right; auto).
    assert (Hin : In it args) by (apply Hsub; left; auto).
    pose proof (forallb_In _ _ _ _ Hf Hin) as Fit.
    (* only Contains(symbol, FiniteSet) members are looked at *)
    destruct (formula_inv it Fit) as [b|a Ha|c a b Hc Ha Hb|a s Ha Hs|c l Hc Hl]; try (apply IH; assumption).
    destruct (term_cases a Ha) as [[n [-> Hn]]|[name ->]]; [apply IH; assumption|].
    destruct (set_inv s Hs) as [x y lo ro _ _ _|fset Hfs|c _]; try (apply IH; assumption).
    rewrite !N.eqb_refl. cbn [andb].
    set (it := ELex TC_Contains (ESym name) (EFN TC_FiniteSet fset)) in *.
    destruct (negb (existsb is_numconst fset)); [discriminate|].
    pose proof (forallb_formula_frag _ Hf) as Ffr.
    destruct (AND (set_erase it args)) as [restCond| | |] eqn:Ea; cbn [bind]; try discriminate.
    destruct (HAND _ _ (forallb_set_erase formula it args Hf) Ea) as [Frc Erc].
    destruct (dom_elems SUBS (ESym name) restCond fset [] false) as [[present se]| | |] eqn:Ed;
      cbn [bind]; try discriminate.
    destruct (dom_elems_sound name restCond fset [] false present se Frc Hfs eq_refl Ed) as [J1 [J2 J3]].
    assert (S1 : forall rho, forallb (evalB rho) args = evalB rho it && evalB rho restCond).
    { intros rho. rewrite Erc. apply forallb_set_erase_member; auto using formula_frag. }
    assert (S2 : forall rho, evalB rho it = val_in rho (rho name) fset) by reflexivity.
    assert (S3 : forall rho, evalB rho restCond = true ->
                             val_in rho (rho name) fset = val_in rho (rho name) present)
      by (intros rho Hrc; rewrite (J2 rho Hrc); symmetry; apply orb_false_r).
    assert (S4 : se = false -> forall rho, val_in rho (rho name) present = true -> evalB rho restCond = true).
    { intros Hse rho Hv. destruct (proj2 (J3 Hse) rho Hv) as [H|H]; [exact H|discriminate H]. }
    destruct (present_contains_sound present name J1) as [Fpc Epc].
    destruct se; cbn [negb].
    - destruct (negb (length present =? length fset)%nat); [|discriminate].
      destruct (AND (set_of_list [present_contains present (ESym name); restCond])) as [r2| | |] eqn:Ea2;
        cbn [bind]; try discriminate.
      intros H. injection H as <-.
      assert (F2 : forallb formula [present_contains present (ESym name); restCond] = true)
        by (cbn [forallb]; rewrite Fpc, Frc; reflexivity).
      assert (F2' : forallb formula (set_of_list [present_contains present (ESym name); restCond]) = true)
        by (rewrite forallb_set_of_list; auto using forallb_formula_frag).
      destruct (HAND _ _ F2' Ea2) as [Fr2 Er2]. split; auto. intros rho.
      rewrite Er2, agg_set_of_list by auto using forallb_formula_frag. cbn [agg forallb].
      rewrite andb_true_r, Epc, S1, S2.
      destruct (evalB rho restCond) eqn:Hrc; [rewrite (S3 rho Hrc); reflexivity|rewrite !andb_false_r; reflexivity].
    - intros H. injection H as <-. split; auto. intros rho. rewrite Epc, S1, S2.
      destruct (evalB rho restCond) eqn:Hrc.
      + rewrite (S3 rho Hrc), andb_true_r. reflexivity.
      + rewrite andb_false_r. apply not_true_is_false. intros Hv. rewrite (S4 eq_refl rho Hv) in Hrc. discriminate.
  Qed.
End Dom.

Lemma mapM_rel : forall (V : Type) (f : expr -> res expr) (ok : expr -> bool)
    (ev : env -> expr -> V) (U : env -> env) l l',
  (forall x y, In x l -> f x = Ok y -> ok y = true /\ forall rho, ev rho y = ev (U rho) x) ->
  mapM f l = Ok l' ->
  forallb ok l' = true /\ forall rho, map (ev rho) l' = map (ev (U rho)) l.
Proof.
  intros V f ok ev U. induction l as [|x l IH]; intros l' H; cbn [mapM].
  - intros E. injection E as <-. split; reflexivity.
  - destruct (f x) as [y| | |] eqn:Fx; cbn [bind]; try discriminate.
    destruct (mapM f l) as [ys| | |] eqn:Fl; cbn [bind]; try discriminate.
    intros E. injection E as <-.
    destruct (H x y (or_introl eq_refl) Fx) as [O1 E1].
    destruct (IH ys (fun a b Ha => H a b (or_intror Ha)) eq_refl) as [O2 E2].
    split; [cbn [forallb]; rewrite O1, O2; reflexivity|].
    intros rho. cbn [map]. rewrite E1, E2. reflexivity.
Qed.

Lemma formula_is_boolean : forall e, formula e = true -> is_boolean e = true.
Proof.
  intros e He. destruct (formula_inv e He) as [b|a Ha|c a b Hc Ha Hb|a s Ha Hs|c l Hc Hl]; try reflexivity.
  - apply mem_rel_codes in Hc. destruct Hc as [->|[->|[->| ->]]]; reflexivity.
  - destruct Hc as [->|[->| ->]]; reflexivity.
Qed.

Lemma set_ok_is_set : forall e, set_ok e = true -> is_set e = true.
Proof. intros e He. destruct (set_inv e He) as [x y lo ro _ _ _|l _|c [->| ->]]; reflexivity. Qed.

Section Node.
  Variables AND OR : list expr -> res expr.
  Hypothesis HAND : AO_spec false AND.
  Hypothesis HOR : AO_spec true OR.
  Variable nm : list N.
  Variable v : expr.
  Variable REC : expr -> res expr.
  Hypothesis HREC : forall e r, REC e = Ok r -> P3 nm v e r.

  Let U (rho : env) : env := upd rho nm (evalT rho v).

  Lemma rec_formulas : forall l l', forallb formula l = true -> mapM REC l = Ok l' ->
    forallb formula l' = true /\ forall rho, map (evalB rho) l' = map (evalB (U rho)) l.
  Proof.
    intros l l' Hl. apply mapM_rel. intros x y Hx Hy.
    apply (HREC x y Hy). eapply forallb_In; eauto.
  Qed.

  Lemma rec_terms : forall l l', forallb term_ok l = true -> mapM REC l = Ok l' ->
    forallb term_ok l' = true /\ forall rho, map (evalT rho) l' = map (evalT (U rho)) l.
  Proof.
    intros l l' Hl. apply mapM_rel. intros x y Hx Hy.
    apply (HREC x y Hy). eapply forallb_In; eauto.
  Qed.

  (* the visitor on a term, on a set, on a formula *)
  Lemma subs_node_term : forall e r, e <> ESym nm -> term_ok e = true ->
    subs_node AND OR REC e = Ok r ->
    term_ok r = true /\ forall rho, evalT rho r = evalT (U rho) e.
  Proof.
    intros e r Hne He H. destruct e; try discriminate He; cbn [subs_node] in H.
    - destruct n; try discriminate He; injection H as <-; split; auto.
    - injection H as <-. split; auto. intros rho. cbn [evalT]. unfold U. rewrite upd_other; auto.
      congruence.
  Qed.

  Lemma subs_node_set : forall e r, set_ok e = true -> subs_node AND OR REC e = Ok r ->
    set_ok r = true /\ forall rho q, evalS rho r q = evalS (U rho) e q.
  Proof.
    intros e r He H. destruct (set_inv e He) as [x y lo ro Hx Hy Ho|args Hl|c Hc]; cbn [subs_node] in H.
    - (* Interval: the endpoints are numbers *)
      injection H as <-. split; auto.
    - (* FiniteSet *)
      cbn [N.eqb Pos.eqb TC_And TC_Or TC_Xor TC_FiniteSet] in H.
      destruct (mapM REC args) as [l'| | |] eqn:Rl; cbn [bind] in H; try discriminate H.
      destruct (rec_terms args l' Hl Rl) as [Fl' El']. injection H as <-.
      pose proof (forallb_terms_frag _ Fl') as Fr.
      split; [apply set_ok_finiteset; rewrite forallb_set_of_list; auto|]. intros rho q.
      rewrite evalS_finiteset. unfold val_in. rewrite existsb_set_of_list by exact Fr. cbn [evalS].
      rewrite <- (existsb_map _ _ (evalT rho) (fun t => Qeq_bool t q)),
              <- (existsb_map _ _ (evalT (U rho)) (fun t => Qeq_bool t q)), El'. reflexivity.
    - (* EmptySet / UniversalSet *)
      injection H as <-. split; auto.
  Qed.

  (* And / Or: the arguments are visited, the constructor is called again *)
  Lemma subs_connective : forall is_or F args l' r, AO_spec is_or F ->
    forallb formula args = true -> mapM REC args = Ok l' ->
    (if forallb is_boolean l' then F (set_of_list l') else ErrExn EXN_SYMENGINE) = Ok r ->
    formula r = true /\ forall rho, evalB rho r = agg is_or (U rho) args.
  Proof.
    intros is_or F args l' r HF Hl Rl H.
    destruct (rec_formulas args l' Hl Rl) as [Fl' El'].
    destruct (forallb is_boolean l'); [|discriminate H].
    pose proof (forallb_formula_frag _ Fl') as Fr.
    assert (Fs : forallb formula (set_of_list l') = true) by (rewrite forallb_set_of_list; auto).
    destruct (HF _ _ Fs H) as [F' E]. split; auto. intros rho.
    rewrite E, agg_set_of_list by exact Fr. apply agg_map, El'.
  Qed.

  Lemma subs_node_formula : forall e r, formula e = true -> subs_node AND OR REC e = Ok r ->
    formula r = true /\ forall rho, evalB rho r = evalB (U rho) e.
  Proof.
    intros e r He H.
    destruct (formula_inv e He) as [b|a Ha|c a b Hc Ha Hb|a s Ha Hs|c l Hc Hl]; cbn [subs_node] in H.
    - injection H as <-. split; auto.
    - rewrite N.eqb_refl in H.
      destruct (REC a) as [a'| | |] eqn:Ra; cbn [bind] in H; try discriminate H.
      destruct (proj2 (proj2 (HREC a a' Ra)) Ha) as [Fa' Ea'].
      rewrite (formula_is_boolean _ Fa') in H. injection H as <-.
      destruct (lnot_sound a' Fa') as [Fn En]. split; auto. intros rho. rewrite En, Ea'. reflexivity.
    - rewrite Hc in H.
      destruct (REC a) as [a'| | |] eqn:Ra; cbn [bind] in H; try discriminate H.
      destruct (REC b) as [b'| | |] eqn:Rb; cbn [bind] in H; try discriminate H.
      destruct (proj1 (HREC a a' Ra) Ha) as [Fa' Ea']. destruct (proj1 (HREC b b' Rb) Hb) as [Fb' Eb'].
      destruct (expr_eqb a' a && expr_eqb b' b) eqn:Eq.
      + (* nothing changed: the node itself is returned *)
        injection H as <-. rewrite andb_true_iff in Eq. destruct Eq as [Q1 Q2].
        apply expr_eqb_term in Q1; auto. apply expr_eqb_term in Q2; auto. subst a' b'.
        split; [exact He|]. intros rho. cbn [evalB]. unfold U. rewrite <- Ea', <- Eb'. reflexivity.
      + destruct (rel_create_sound c a' b' r Hc Fa' Fb' H) as [F E]. split; auto.
        intros rho. rewrite E, Ea', Eb'. reflexivity.
    - rewrite N.eqb_refl in H.
      destruct (REC a) as [a'| | |] eqn:Ra; cbn [bind] in H; try discriminate H.
      destruct (REC s) as [s'| | |] eqn:Rs; cbn [bind] in H; try discriminate H.
      destruct (proj1 (HREC a a' Ra) Ha) as [Fa' Ea'].
      destruct (proj1 (proj2 (HREC s s' Rs)) Hs) as [Fs' Es'].
      rewrite (set_ok_is_set _ Fs') in H. cbn [negb] in H.
      destruct (expr_eqb a' a && expr_eqb s' s) eqn:Eq.
      + injection H as <-. rewrite andb_true_iff in Eq. destruct Eq as [Q1 Q2].
        apply expr_eqb_term in Q1; auto. apply expr_eqb_true in Q2; auto using set_frag. subst a' s'.
        split; [exact He|]. intros rho. cbn [evalB]. unfold U. rewrite <- Es', <- Ea'. reflexivity.
      + destruct (contains_sound a' s' r Fa' Fs' H) as [F E]. split; auto.
        intros rho. rewrite E, Es', Ea'. reflexivity.
    - destruct Hc as [->|[->| ->]]; cbn [N.eqb Pos.eqb TC_And TC_Or TC_Xor] in H;
        destruct (mapM REC l) as [l'| | |] eqn:Rl; cbn [bind] in H; try discriminate H.
      + exact (subs_connective false AND l l' r HAND Hl Rl H).
      + exact (subs_connective true OR l l' r HOR Hl Rl H).
      + destruct (rec_formulas l l' Hl Rl) as [Fl' El'].
        destruct (forallb is_boolean l'); [|discriminate H]. injection H as <-.
        destruct (logical_xor_sound l' Fl') as [F E]. split; auto. intros rho.
        rewrite E, evalB_Xor, El'. reflexivity.
  Qed.

  Lemma subs_node_sound : forall e r, e <> ESym nm ->
    subs_node AND OR REC e = Ok r -> P3 nm v e r.
  Proof using HAND HOR HREC.
    intros e r Hne H. split; [|split]; intros He.
    - apply subs_node_term; assumption.
    - apply subs_node_set; assumption.
    - apply subs_node_formula; assumption.
  Qed.
End Node.

Lemma agg_nil_r : forall is_or x, comb is_or x (if is_or then false else true) = x.
Proof. intros [] []; reflexivity. Qed.

Theorem and_or_subs_sound : forall fuel,
  (forall is_or, AO_spec is_or (and_or fuel is_or)) /\ SUBS_spec (subs fuel).
Proof.
  induction fuel as [|f [IA IS]].
  - split; [intros is_or s r|intros nm v e r]; discriminate.
  - split.
    + intros is_or s r Hs. cbn [and_or].
      pose proof (ao_collect_sound is_or s [] Hs eq_refl) as Hc.
      destruct (ao_collect is_or s []) as [args|].
      * destruct Hc as [Fa Ea].
        assert (Ea' : forall rho, agg is_or rho args = agg is_or rho s)
          by (intros rho; rewrite Ea; apply agg_nil_r).
        destruct (has_compl args) eqn:Hh.
        -- intros H. injection H as <-. split; [reflexivity|]. intros rho. cbn [evalB].
           rewrite <- Ea'. symmetry. apply has_compl_sound; auto.
        -- assert (Fin : forall r, Ok (ao_finish is_or args) = Ok r ->
                     formula r = true /\ forall rho, evalB rho r = agg is_or rho s).
           { intros r0 H. injection H as <-. destruct (ao_finish_sound is_or args Fa) as [F E].
             split; auto. intros rho. rewrite E. apply Ea'. }
           destruct is_or; [exact (Fin r)|].
           destruct (dom_loop (and_or f false) (subs f) args args) as [o| | |] eqn:Ed;
             cbn [bind]; try discriminate.
           destruct o as [e|]; [|exact (Fin r)]. intros H. injection H as <-.
           destruct (dom_loop_sound _ _ (IA false) IS args args e Fa (fun x Hx => Hx) Ed) as [F E].
           split; auto. intros rho. rewrite E. apply (Ea' rho).
      * intros H. injection H as <-. split; [reflexivity|]. intros rho. cbn [evalB]. symmetry. apply Hc.
    + intros nm v e r Hv. cbn [subs]. destruct (keyless_equiv e (ESym nm)) eqn:Ek.
      * intros H. injection H as <-. unfold P3. split; [|split]; intros He.
        -- apply keyless_equiv_true in Ek; auto using term_frag. subst e. split; auto.
           intros rho. cbn [evalT]. rewrite upd_same. reflexivity.
        -- apply keyless_equiv_true in Ek; auto using set_frag. subst e. discriminate He.
        -- apply keyless_equiv_true in Ek; auto using formula_frag. subst e. discriminate He.
      * intros H.
        apply (subs_node_sound _ _ (IA false) (IA true) nm v _ (fun e0 r0 => IS nm v e0 r0 Hv)); [|exact H].
        intros ->. rewrite keyless_equiv_refl in Ek by reflexivity. discriminate.
Qed.

Theorem logical_and_sound : forall s r, forallb formula s = true -> logical_and s = Ok r ->
  formula r = true /\ forall rho, evalB rho r = forallb (evalB rho) s.
Proof. intros s r. apply (and_or_subs_sound (fuel_of s)). Qed.

Theorem logical_or_sound : forall s r, forallb formula s = true -> logical_or s = Ok r ->
  formula r = true /\ forall rho, evalB rho r = existsb (evalB rho) s.
Proof. intros s r. apply (and_or_subs_sound (fuel_of s)). Qed.

(* nand / nor: logical_not of a sound result *)
Lemma lnot_of_sound : forall (X : res expr) (b : env -> bool) r,
  (forall a, X = Ok a -> formula a = true /\ forall rho, evalB rho a = b rho) ->
  bind X (fun a => Ok (lnot a)) = Ok r ->
  formula r = true /\ forall rho, evalB rho r = negb (b rho).
Proof.
  intros X b r HX. destruct X as [a| | |]; cbn [bind]; try discriminate.
  intros H. injection H as <-. destruct (HX a eq_refl) as [F V].
  destruct (lnot_sound a F) as [F' V']. split; auto. intros rho. rewrite V', V. reflexivity.
Qed.

Theorem logical_nand_sound : forall s r, forallb formula s = true -> logical_nand s = Ok r ->
  formula r = true /\ forall rho, evalB rho r = negb (forallb (evalB rho) s).
Proof. intros s r Hs. apply lnot_of_sound. intros a. apply logical_and_sound, Hs. Qed.

Theorem logical_nor_sound : forall s r, forallb formula s = true -> logical_nor s = Ok r ->
  formula r = true /\ forall rho, evalB rho r = negb (existsb (evalB rho) s).
Proof. intros s r Hs. apply lnot_of_sound. intros a. apply logical_or_sound, Hs. Qed.

Theorem subs_sound : forall fuel nm v e r, formula e = true -> term_ok v = true ->
  subs fuel (ESym nm) v e = Ok r ->
  formula r = true /\ forall rho, evalB rho r = evalB (upd rho nm (evalT rho v)) e.
Proof.
  intros fuel nm v e r He Hv H. apply (proj2 (and_or_subs_sound fuel) nm v e r Hv H), He.
Qed.

Lemma evalPw_app : forall rho l1 l2,
  evalPw rho (l1 ++ l2) = match evalPw rho l1 with Some q => Some q | None => evalPw rho l2 end.
Proof.
  induction l1 as [|[e c] l1 IH]; intros l2; cbn [app evalPw]; auto.
  destruct (evalB rho c); auto.
Qed.

Lemma evalPw_none : forall rho l c, evalPw rho l = None -> In c (map snd l) -> evalB rho c = false.
Proof.
  induction l as [|[e c'] l IH]; intros c H Hc; cbn [map In evalPw snd] in *; [tauto|].
  destruct (evalB rho c') eqn:E; [discriminate|]. destruct Hc as [<-|Hc]; auto.
Qed.

Lemma pw_ok_app : forall l1 l2, pw_ok (l1 ++ l2) = pw_ok l1 && pw_ok l2.
Proof. intros. unfold pw_ok. apply forallb_app. Qed.

Lemma pw_loop_sound : forall vec nv conds,
  pw_ok vec = true -> pw_ok nv = true -> forallb formula conds = true ->
  (forall c, In c conds -> In c (map snd nv)) ->
  pw_ok (pw_loop vec nv conds) = true /\
  forall rho, evalPw rho (pw_loop vec nv conds) = evalPw rho (nv ++ vec).
Proof.
  induction vec as [|[e c] r IH]; intros nv conds Hv Hn Hc Hsub; cbn [pw_loop].
  - split; auto. intros rho. rewrite app_nil_r. reflexivity.
  - unfold pw_ok in Hv. cbn [forallb fst snd] in Hv. rewrite !andb_true_iff in Hv.
    destruct Hv as [[He Hfc] Hr]. fold (pw_ok r) in Hr.
    assert (Skip : (forall rho, evalPw rho (nv ++ (e, c) :: r) = evalPw rho (nv ++ r)) ->
                   pw_ok (pw_loop r nv conds) = true /\
                   forall rho, evalPw rho (pw_loop r nv conds) = evalPw rho (nv ++ (e, c) :: r)).
    { intros Hs. destruct (IH nv conds Hr Hn Hc Hsub) as [I1 I2]. split; auto.
      intros rho. rewrite I2, Hs. reflexivity. }
    assert (Keep : negb (set_mem c conds) = true ->
                   pw_ok (pw_loop r (nv ++ [(e, c)]) (set_insert c conds)) = true /\
                   forall rho, evalPw rho (pw_loop r (nv ++ [(e, c)]) (set_insert c conds)) =
                               evalPw rho (nv ++ (e, c) :: r)).
    { intros _.
      assert (Hn' : pw_ok (nv ++ [(e, c)]) = true).
      { rewrite pw_ok_app, Hn. unfold pw_ok. cbn [forallb fst snd]. rewrite He, Hfc. reflexivity. }
      assert (Hc' : forallb formula (set_insert c conds) = true).
      { rewrite forallb_set_insert; auto using formula_frag, forallb_formula_frag. rewrite Hfc, Hc. reflexivity. }
      assert (Hsub' : forall c0, In c0 (set_insert c conds) -> In c0 (map snd (nv ++ [(e, c)]))).
      { intros c0 H0. rewrite map_app, in_app_iff.
        apply In_set_insert in H0; auto using formula_frag, forallb_formula_frag.
        destruct H0 as [<-|H0]; [right; left; reflexivity|left; auto]. }
      destruct (IH _ _ Hr Hn' Hc' Hsub') as [I1 I2]. split; auto.
      intros rho. rewrite I2, <- app_assoc. reflexivity. }
    assert (Dup : negb (set_mem c conds) = false ->
                  forall rho, evalPw rho (nv ++ (e, c) :: r) = evalPw rho (nv ++ r)).
    { rewrite negb_false_iff. intros Hm rho.
      apply set_mem_In in Hm; auto using formula_frag, forallb_formula_frag.
      apply Hsub in Hm. rewrite !evalPw_app. destruct (evalPw rho nv) eqn:En; auto.
      cbn [evalPw]. rewrite (evalPw_none rho nv c En Hm). reflexivity. }
    destruct (formula_inv c Hfc) as [b| | | |];
      try (destruct (negb (set_mem _ conds)) eqn:Em; [apply Keep; auto|apply Skip; apply Dup; auto]).
    destruct b.
    + split.
      * rewrite pw_ok_app, Hn. unfold pw_ok. cbn [forallb fst snd]. rewrite He. reflexivity.
      * intros rho. rewrite !evalPw_app. destruct (evalPw rho nv); reflexivity.
    + apply Skip. intros rho. rewrite !evalPw_app. destruct (evalPw rho nv); reflexivity.
Qed.

Theorem piecewise_sound : forall vec, pw_ok vec = true ->
  match piecewise vec with
  | Ok r => forall rho, evalV rho r = evalPw rho vec
  | ErrExn c => c = EXN_DOMAIN /\ forall rho, evalPw rho vec = None
  | _ => False
  end.
Proof.
  intros vec Hv. unfold piecewise.
  destruct (pw_loop_sound vec [] [] Hv eq_refl eq_refl (fun c H => H)) as [Hok Hev].
  cbn [app] in Hev.
  destruct (pw_loop vec [] []) as [|[e c] tl].
  - split; auto. intros rho. rewrite <- Hev. reflexivity.
  - assert (Gen : forall rho, evalV rho (EPw ((e, c) :: tl)) = evalPw rho vec)
      by (intros rho; rewrite <- Hev; reflexivity).
    destruct c; try exact Gen. destruct b; [|exact Gen]. destruct tl; [|exact Gen].
    intros rho. rewrite <- Hev. unfold pw_ok in Hok. cbn [forallb fst snd] in Hok.
    rewrite !andb_true_iff in Hok. destruct Hok as [[He _] _].
    destruct e; try discriminate He; reflexivity.
Qed.
