From SE Require Import Assume.AssumeSem Assume.AssumeProofs Assume.C34Theorems.

Theorem C34_negative_sound : forall rho st A, assum_of st = Ok A -> osat rho st ->
  forall e t v, is_negative A e = QT t -> denote rho e = Some v ->
  (t = TT -> v_negative v) /\ (t = TF -> ~ v_negative v).
Proof. intros rho st A HA HS. exact (negative_sound rho A (assum_of_ok rho st A HA HS)). Qed.
Print Assumptions C34_negative_sound.
