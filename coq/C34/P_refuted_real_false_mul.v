From SE Require Import Assume.AssumeSem Assume.C34Theorems.

Theorem C34_real_false_refuted_mul : exists st A rho e v,
  assum_of st = Ok A /\ osat rho st /\ is_real A e = QT TF /\ denote rho e = Some v /\ v_real v.
Proof. exact real_false_refuted_mul. Qed.
Print Assumptions C34_real_false_refuted_mul.
