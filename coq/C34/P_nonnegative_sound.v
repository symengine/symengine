From SE Require Import Assume.AssumeSem Assume.AssumeProofs Assume.C34Theorems.

(* unguarded since the repair 089e9a7 (nan and zoo used to answer true) *)
Theorem C34_nonnegative_sound : forall rho st A, assum_of st = Ok A -> osat rho st ->
  forall e t v, is_nonnegative A e = QT t -> denote rho e = Some v ->
  (t = TT -> v_nonnegative v) /\ (t = TF -> ~ v_nonnegative v).
Proof. intros rho st A HA HS. exact (nonnegative_sound rho A (assum_of_ok rho st A HA HS)). Qed.
Print Assumptions C34_nonnegative_sound.
