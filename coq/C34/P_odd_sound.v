From SE Require Import Assume.AssumeSem Assume.AssumeProofs2 Assume.C34Theorems.
From Coq Require Import QArith List ZArith.
Import ListNotations.

Theorem C34_odd_sound : forall rho st A, assum_of st = Ok A -> osat rho st ->
  forall e half z h, keys_ok half = true -> is_odd_via A half = QT TT ->
  denote rho e = Some (VC z) -> denote rho half = Some (VC h) ->
  qi_eq (qi_add h h) (qi_add z (inject_Z 1, 0)) -> v_odd (VC z).
Proof. intros rho st A HA HS. exact (odd_sound rho A (assum_of_ok rho st A HA HS)). Qed.
Print Assumptions C34_odd_sound.
