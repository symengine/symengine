From SE Require Import Assume.AssumeSem Assume.AssumeProofs Assume.C34Theorems.

(* unguarded since the repair 089e9a7 (nan and zoo used to answer true) *)
Theorem C34_nonpositive_sound : forall rho st A, assum_of st = Ok A -> osat rho st ->
  forall e t v, is_nonpositive A e = QT t -> denote rho e = Some v ->
  (t = TT -> v_nonpositive v) /\ (t = TF -> ~ v_nonpositive v).
Proof. intros rho st A HA HS. exact (nonpositive_sound rho A (assum_of_ok rho st A HA HS)). Qed.
Print Assumptions C34_nonpositive_sound.
