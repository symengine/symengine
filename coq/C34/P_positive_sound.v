From SE Require Import Assume.AssumeSem Assume.AssumeProofs Assume.C34Theorems.

(* pos_guard e: every sum in e has at least one term (well-formedness of a dump).  Before the repair 7182169 a
   Complex coefficient had to be excluded as well (is_positive(x + 1 + I) = true for x > 0). *)
Theorem C34_positive_sound : forall rho st A, assum_of st = Ok A -> osat rho st ->
  forall e t v, pos_guard e = true -> is_positive A e = QT t -> denote rho e = Some v ->
  (t = TT -> v_positive v) /\ (t = TF -> ~ v_positive v).
Proof. intros rho st A HA HS. exact (positive_sound_guarded rho A (assum_of_ok rho st A HA HS)). Qed.
Print Assumptions C34_positive_sound.
