From SE Require Import Assume.AssumeSem Assume.C34Theorems.

Theorem C34_real_complex_refuted_pole : exists st A rho e,
  assum_of st = Ok A /\ osat rho st /\ is_real A e = QT TT /\ is_complex A e = QT TT /\
  denote rho e = Some VZoo /\ ~ v_real VZoo /\ ~ v_complex VZoo.
Proof. exact real_true_refuted_pole. Qed.
Print Assumptions C34_real_complex_refuted_pole.
