From SE Require Import Assume.AssumeSem Assume.AssumeProofs Assume.C34Theorems.

Theorem C34_nonzero_sound : forall rho st A, assum_of st = Ok A -> osat rho st ->
  forall e t v, is_nonzero A e = QT t -> denote rho e = Some v ->
  (t = TT -> ~ v_zero v) /\ (t = TF -> v_zero v).
Proof. intros rho st A HA HS. exact (nonzero_sound rho A (assum_of_ok rho st A HA HS)). Qed.
Print Assumptions C34_nonzero_sound.
