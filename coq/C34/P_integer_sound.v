From SE Require Import Assume.AssumeSem Assume.AssumeProofs2 Assume.C34Theorems.

Theorem C34_integer_sound : forall rho st A, assum_of st = Ok A -> osat rho st ->
  forall e t v, keys_ok e = true -> is_integer A e = QT t -> denote rho e = Some v ->
  (t = TT -> v_integer v) /\ (t = TF -> ~ v_integer v).
Proof. intros rho st A HA HS. exact (integer_sound rho A (assum_of_ok rho st A HA HS)). Qed.
Print Assumptions C34_integer_sound.
