From SE Require Import Assume.AssumeSem Assume.AssumeProofs2 Assume.C34Theorems.

(* is_even(e) = is_integer(e/2); [half] is the quotient built by the library *)
Theorem C34_even_sound : forall rho st A, assum_of st = Ok A -> osat rho st ->
  forall e half z h, keys_ok half = true -> is_even_via A half = QT TT ->
  denote rho e = Some (VC z) -> denote rho half = Some (VC h) -> qi_eq (qi_add h h) z -> v_even (VC z).
Proof. intros rho st A HA HS. exact (even_sound rho A (assum_of_ok rho st A HA HS)). Qed.
Print Assumptions C34_even_sound.
