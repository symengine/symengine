From SE Require Import Assume.AssumeSem Assume.AssumeProofs2.

(* is_rational takes no assumptions.  Full statement (not proved):
     forall e t v, is_rational e = QT t -> denote rho e = Some v -> (t = TT -> v_rational v) /\ (t = TF -> ~ v_rational v).
   Proved part: true answers for every expression that is not a sum (RationalVisitor::bvisit(Add) returns the
   answer of the LAST visited term, the accumulated conjunction is never used), false answers for literals.
   Missing: sums; the false answers for pi, E, GoldenRatio (irrational constants have no value in Q(i)). *)
Theorem C34_rational_sound_partial : forall rho,
  (forall e v, (forall c d, e <> EAdd c d) -> is_rational e = QT TT -> denote rho e = Some v -> v_rational v) /\
  (forall n v, is_rational (ENum n) = QT TF -> denote rho (ENum n) = Some v -> ~ v_rational v).
Proof.
  intro rho. split.
  - exact (rational_true_sound rho).
  - exact (rational_false_sound_literal rho).
Qed.
Print Assumptions C34_rational_sound_partial.
