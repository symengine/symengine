From SE Require Import Assume.AssumeSem Assume.AssumeProofs2 Assume.C34Theorems.

Theorem C34_complex_false_sound : forall rho st A, assum_of st = Ok A -> osat rho st ->
  forall e v, keys_ok e = true -> is_complex A e = QT TF -> denote rho e = Some v -> ~ v_complex v.
Proof. intros rho st A _ _. exact (complex_false_sound rho A). Qed.
Print Assumptions C34_complex_false_sound.
