From SE Require Import Assume.AssumeSem Assume.C34Theorems.

(* the facts the Assumptions constructor records hold at every valuation that satisfies the statements *)
Theorem C34_assumptions_sound : forall (rho : valuation) (st : option (list expr)) (A : option assum),
  assum_of st = Ok A -> osat rho st -> oassum_ok rho A.
Proof. exact assum_of_ok. Qed.
Print Assumptions C34_assumptions_sound.
