From SE Require Import Assume.AssumeSem Assume.AssumeProofs2 Assume.C34Theorems.

(* true answers; the guard excludes the pole 0^negative (refuted without it: P_refuted_real_pole.v);
   the false answers are refuted (P_refuted_real_false_mul.v) *)
Theorem C34_real_sound_guarded : forall rho st A, assum_of st = Ok A -> osat rho st ->
  forall e v, keys_ok e = true -> is_real A e = QT TT -> denote rho e = Some v -> v <> VZoo -> v_real v.
Proof. intros rho st A HA HS. exact (real_sound_guarded rho A (assum_of_ok rho st A HA HS)). Qed.
Print Assumptions C34_real_sound_guarded.
