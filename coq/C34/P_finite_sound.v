From SE Require Import Assume.AssumeSem Assume.AssumeProofs2 Assume.C34Theorems.

Theorem C34_finite_sound : forall rho st A, assum_of st = Ok A -> osat rho st ->
  forall e t v, is_finite A e = QT t -> denote rho e = Some v ->
  (t = TT -> v_finite v) /\ (t = TF -> v_infinite v).
Proof. intros rho st A HA HS. exact (finite_sound rho A (assum_of_ok rho st A HA HS)). Qed.
Print Assumptions C34_finite_sound.
