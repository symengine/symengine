From SE Require Import Assume.AssumeSem Assume.C34Theorems.
From Coq Require Import QArith List ZArith.
Import ListNotations.

(* the hypotheses of the theorems are satisfiable on a non-trivial input:
   2*x - y + 3 under x > 0, y < 0, at x = 1/2, y = -3; the query answers true, the value is 7 *)
Example C34_nonvacuous_positive :
  exists A, assum_of st_xy = Ok A /\ pos_guard e_lin = true /\ keys_ok e_lin = true /\
            is_positive A e_lin = QT TT /\ is_real A e_lin = QT TT /\ is_integer A e_lin = QT TI /\
            denote rho_xy e_lin = Some (VC (qi_add (qi_mul (inject_Z 2, 0) (1 # 2, 0))
                                                (qi_add (qi_mul (inject_Z (-1), 0) (-3 # 1, 0)) (inject_Z 3, 0)))).
Proof.
  (* the assumption object is computed first: left to [repeat split], [assum_of st_xy = Ok ?A] would be closed by
     unification and the queries evaluated on the unreduced term *)
  eexists. split. { vm_compute; reflexivity. }
  repeat split; vm_compute; reflexivity.
Qed.
Example C34_nonvacuous_sat : osat rho_xy st_xy.
Proof.
  constructor; [|constructor; [|constructor]]; cbn; (split; [reflexivity|]); unfold Qlt; cbn; lia.
Qed.
(* an inconsistent statement set is rejected by the constructor *)
Example C34_nonvacuous_inconsistent :
  assum_of (Some [EF2 TC_StrictLessThan (ENum (NInt 0)) sx; EF2 TC_StrictLessThan sx (ENum (NInt 0))]) = ErrExn EXN_SYMENGINE.
Proof. vm_compute. reflexivity. Qed.
(* the former counterexamples of the repaired rules now get sound answers *)
Example C34_repaired_rules :
  is_nonnegative None (ENum NNaN) = QT TF /\ is_nonpositive None (ENum NNaN) = QT TF /\
  is_nonnegative None (ENum (NInf 0)) = QT TF /\ is_nonpositive None (ENum (NInf 0)) = QT TF /\
  (exists A, assum_of st_pos_x = Ok A /\ is_positive A e_pos_cplx = QT TI) /\
  (exists A, assum_of st_real_x = Ok A /\ is_real A e_add_two_nonreal = QT TI).
Proof. exact repaired_rules. Qed.
