(* C22 obligation: polynomials that are __eq__ have the same __hash__ (after fix 6bb32d4), whatever
   the order of the buckets of the unordered_map. *)
From SE Require Import C22.MPolySpec C22.MPolyEq.
Local Open Scope Z_scope.
Theorem C22_meq_hash :
  forall (V : Type) (vlt veqb : V -> V -> bool) (vstr : V -> list N), order_laws vlt veqb ->
  forall a b : mpoly V, poly_ok vlt a -> poly_ok vlt b ->
    meq veqb a b = true -> mhash vstr a = mhash vstr b.
Proof. exact @meq_hash. Qed.
Print Assumptions C22_meq_hash.
