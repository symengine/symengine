(* C22 -- from_dict: a dictionary given over an arbitrary (duplicate-free, unsorted) generator vector
   becomes a well-formed polynomial over the sorted generator set that denotes the same polynomial
   (every generator keeps its exponent).  This is how the correspondence builds all its operands.
   The sorted set s is built together with a map m from each generator to its position in the vector;
   `trans` is the inverse of that permutation, and translating with it is an embedding of v in s. *)
From SE Require Import C22.MPolySpec C22.MPolyDict C22.MPolyRec.
From Coq Require Import Lia Sorted Permutation.
Local Open Scope N_scope.

Fixpoint seqN (i : N) (n : nat) : list N :=
  match n with O => [] | S n' => i :: seqN (i + 1) n' end.
Lemma seqN_length : forall n i, length (seqN i n) = n.
Proof. induction n as [|n IH]; intros i; cbn [seqN length]; [reflexivity|]. rewrite IH. reflexivity. Qed.

Section FromDict.
  Context {V : Type}.
  Variable vlt : V -> V -> bool.
  Variable veqb : V -> V -> bool.
  Hypothesis laws : order_laws vlt veqb.

  Notation veqb_refl := (veqb_refl vlt veqb laws).
  Notation veqb_neq := (veqb_neq vlt veqb laws).
  Notation expo := (expo veqb).
  Notation embed := (embed veqb).
  Notation lift := (lift veqb).
  Notation index_in := (index_in veqb).

  Lemma map_len : forall {A} (f : V -> A) U, len (map f U) = len U.
  Proof. intros. unfold len. rewrite map_length. reflexivity. Qed.

  Lemma imap_keys : forall x i m, map fst (imap_insert vlt x i m) = set_insert vlt x (map fst m).
  Proof.
    intros x i. induction m as [|[y j] r IH]; cbn [imap_insert set_insert map fst]; [reflexivity|].
    destruct (vlt y x); [cbn [map fst]; rewrite IH; reflexivity|].
    destruct (vlt x y); reflexivity.
  Qed.
  Lemma imap_snd : forall (g : V -> N) x i m, g x = i -> map snd m = map g (map fst m) ->
    map snd (imap_insert vlt x i m) = map g (map fst (imap_insert vlt x i m)).
  Proof.
    intros g x i. induction m as [|[y j] r IH]; intros Hg Hm; cbn [imap_insert map fst snd].
    - rewrite Hg. reflexivity.
    - cbn [map fst snd] in Hm. injection Hm as Hj Hr.
      destruct (vlt y x).
      + cbn [map fst snd]. rewrite IH by assumption. rewrite Hj. reflexivity.
      + destruct (vlt x y); cbn [map fst snd]; rewrite ?Hg, ?Hj, ?Hr; reflexivity.
  Qed.

  Lemma index_in_app : forall done x rest, ~ In x done -> index_in (done ++ x :: rest) x = len done.
  Proof.
    induction done as [|y done IH]; intros x rest Hn; cbn [app MPolySpec.index_in].
    - rewrite veqb_refl. reflexivity.
    - rewrite veqb_neq by (intros K; apply Hn; left; assumption).
      rewrite IH by (intros K; apply Hn; right; assumption). unfold len. cbn [length]. lia.
  Qed.

  Lemma from_dict_maps_spec : forall v0 rest done m s, v0 = done ++ rest -> NoDup v0 ->
    map fst m = s -> map snd m = map (index_in v0) s ->
    let '(m', s') := from_dict_maps vlt rest (len done) m s in
    map fst m' = s' /\ map snd m' = map (index_in v0) s' /\
    s' = fold_left (fun s x => set_insert vlt x s) rest s.
  Proof.
    intros v0. induction rest as [|x rest IH]; intros done m s E ND Hk Hs; cbn [from_dict_maps fold_left].
    - repeat split; assumption.
    - assert (Hx : ~ In x done).
      { subst v0. apply NoDup_remove_2 in ND. intros K. apply ND. apply in_or_app. left. assumption. }
      replace (len done + 1) with (len (done ++ [x])) by (unfold len; rewrite app_length; cbn [length]; lia).
      apply IH.
      + rewrite <- app_assoc. assumption.
      + assumption.
      + rewrite imap_keys, Hk. reflexivity.
      + rewrite <- Hk. rewrite <- (imap_keys x (len done) m).
        apply imap_snd; [subst v0; apply index_in_app; assumption|].
        rewrite Hk. assumption.
  Qed.

  Lemma fill_trans_scatter : forall (m : list (V * N)) i trans ltr lk,
    fill_trans (length m) i m trans = trans_key (length m) i (map snd m) (seqN i (length m)) trans ltr lk.
  Proof.
    induction m as [|[y j] m IH]; intros i trans ltr lk; cbn [length fill_trans trans_key map snd seqN]; [reflexivity|].
    destruct (set_chk trans j i) as [t| | |]; cbn [bind]; try reflexivity. apply IH.
  Qed.

  Lemma expo_seqN : forall s i x, In x s -> expo s (seqN i (length s)) x = i + index_in s x.
  Proof.
    induction s as [|y s IH]; intros i x Hin; [destruct Hin|].
    cbn [length seqN MPolySpec.expo MPolySpec.index_in]. destruct (veqb y x) eqn:E; [lia|].
    destruct Hin as [Hin|Hin]; [subst; rewrite veqb_refl in E; discriminate|].
    rewrite IH by assumption. lia.
  Qed.

  (* `trans` sends the position of a generator in v to its position in s *)
  Lemma fill_trans_spec : forall v s m, NoDup v -> NoDup s -> (forall x, In x s <-> In x v) ->
    length s = length v -> map fst m = s -> map snd m = map (index_in v) s ->
    fill_trans (length s) 0 m (zeros (len s)) = Ok (map (index_in s) v).
  Proof.
    intros v s m NDv NDs Hin Lsv Mk Ms.
    assert (Lm : length m = length s) by (rewrite <- Mk; symmetry; apply map_length).
    rewrite <- Lm, (fill_trans_scatter m 0 _ 0 0), Ms, Lm.
    replace (len s) with (len v) by (unfold len; rewrite Lsv; reflexivity).
    rewrite (scatter_embed vlt veqb laws v s (seqN 0 (length s)) 0 0 0 NDv NDs)
      by (try (intros x Hx; apply Hin; assumption); apply seqN_length).
    f_equal. apply map_ext_in. intros x Hx. rewrite expo_seqN by (apply Hin; assumption). apply N.add_0_l.
  Qed.

  (* from_dict: the sorted generators, and the same polynomial over them *)
  Theorem from_dict_spec : forall v d, NoDup v -> NoDup (map fst d) ->
    Forall (fun p => key_ok (length v) (fst p)) d ->
    exists r, from_dict vlt v d = Ok r /\ poly_ok vlt r /\
      (forall x, In x (pvars r) <-> In x v) /\
      forall m, coeff (cdict (pcont r)) m = coeffL (lift (pvars r) v (dnz d)) m.
  Proof.
    intros v d NDv NDd Fd. unfold from_dict.
    pose proof (from_dict_maps_spec v v [] [] [] eq_refl NDv eq_refl eq_refl) as M.
    change (len (@nil V)) with 0 in M.
    destruct (from_dict_maps vlt v 0 [] []) as [m s]. destruct M as [Mk [Ms Es]].
    destruct (set_union_spec vlt veqb laws v [] (SSorted_nil _)) as [Ssorted Sin].
    unfold set_union in Ssorted, Sin. rewrite <- Es in Ssorted, Sin.
    assert (Hin : forall x, In x s <-> In x v) by (intros x; rewrite Sin; cbn [In]; tauto).
    assert (NDs : NoDup s) by (apply (sorted_NoDup vlt veqb laws); assumption).
    assert (Lsv : length s = length v) by (apply Permutation_length, NoDup_Permutation; assumption).
    rewrite (fill_trans_spec v s m) by assumption. cbn [bind].
    set (x := cont_of_dict d (len s)).
    assert (Ox : cont_ok x).
    { unfold cont_ok, x, cont_of_dict. cbn [cdict csize]. rewrite len_length, Lsv. apply dict_ok_dnz; assumption. }
    assert (Sx : csize x = len v) by (unfold x, cont_of_dict, len; cbn [csize]; rewrite Lsv; reflexivity).
    destruct (ctranslate_spec vlt veqb laws s v x NDs NDv (fun y Hy => proj2 (Hin y) Hy) Ox Sx) as [y [Ey [Oy [Sy Cy]]]].
    rewrite Ey. cbn [bind]. eexists. split; [reflexivity|]. cbn [pvars pcont].
    split; [|split; [exact Hin|exact Cy]].
    split; [assumption|]. split; [symmetry; assumption|assumption].
  Qed.
End FromDict.
