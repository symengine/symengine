(* C22 obligation: sub_mpoly, as madd_spec with the difference. *)
From SE Require Import C22.MPolySpec C22.MPolyOps.
Local Open Scope Z_scope.
Theorem C22_msub_spec :
  forall (V : Type) (vlt veqb : V -> V -> bool), order_laws vlt veqb ->
  forall a b : mpoly V, poly_ok vlt a -> poly_ok vlt b ->
    exists r, msub vlt veqb a b = Ok r /\ poly_ok vlt r /\
      (forall v, In v (pvars r) <-> In v (pvars a) \/ In v (pvars b)) /\
      forall m, coeff (cdict (pcont r)) m =
        coeffL (t_sub (lift veqb (pvars r) (pvars a) (cdict (pcont a)))
                   (lift veqb (pvars r) (pvars b) (cdict (pcont b)))) m.
Proof. exact @msub_spec. Qed.
Print Assumptions C22_msub_spec.
