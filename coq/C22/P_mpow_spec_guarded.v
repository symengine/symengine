(* C22 obligation: when n * (largest exponent) < 2^32, pow_mpoly is the mathematical n-th power. *)
From SE Require Import C22.MPolySpec C22.MPolyOps.
Local Open Scope Z_scope.
Theorem C22_mpow_spec_guarded :
  forall (V : Type) (vlt : V -> V -> bool) (a : mpoly V) (n : N), poly_ok vlt a ->
    (n * tmax (cdict (pcont a)) < W32)%N ->
    exists r, mpow (pow_fuel n) a n = Ok r /\ poly_ok vlt r /\ pvars r = pvars a /\
      forall m, coeff (cdict (pcont r)) m =
                coeffL (t_pow N.add (length (pvars a)) (cdict (pcont a)) (N.to_nat n)) m.
Proof. exact @mpow_spec_guarded. Qed.
Print Assumptions C22_mpow_spec_guarded.
