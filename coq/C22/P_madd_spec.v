(* C22 obligation: add_mpoly of two well-formed polynomials over ANY two generator sets succeeds,
   is well-formed over the union of the generators, and its coefficient function is the sum of
   the operands written over the union. *)
From SE Require Import C22.MPolySpec C22.MPolyOps.
Local Open Scope Z_scope.
Theorem C22_madd_spec :
  forall (V : Type) (vlt veqb : V -> V -> bool), order_laws vlt veqb ->
  forall a b : mpoly V, poly_ok vlt a -> poly_ok vlt b ->
    exists r, madd vlt veqb a b = Ok r /\ poly_ok vlt r /\
      (forall v, In v (pvars r) <-> In v (pvars a) \/ In v (pvars b)) /\
      forall m, coeff (cdict (pcont r)) m =
        coeffL (t_add (lift veqb (pvars r) (pvars a) (cdict (pcont a)))
                   (lift veqb (pvars r) (pvars b) (cdict (pcont b)))) m.
Proof. exact @madd_spec. Qed.
Print Assumptions C22_madd_spec.
