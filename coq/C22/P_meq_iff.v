(* C22 obligation: __eq__ is true exactly when both polynomials are the same constant (whatever
   their generators) or have the same generators and the same coefficient function. *)
From SE Require Import C22.MPolySpec C22.MPolyEq.
Local Open Scope Z_scope.
Theorem C22_meq_iff :
  forall (V : Type) (vlt veqb : V -> V -> bool), order_laws vlt veqb ->
  forall a b : mpoly V, poly_ok vlt a -> poly_ok vlt b ->
    (meq veqb a b = true <->
     ((forall m, m <> zeros (len (pvars a)) -> coeff (cdict (pcont a)) m = 0) /\
      (forall m, m <> zeros (len (pvars b)) -> coeff (cdict (pcont b)) m = 0) /\
      coeff (cdict (pcont a)) (zeros (len (pvars a))) = coeff (cdict (pcont b)) (zeros (len (pvars b)))) \/
     (pvars a = pvars b /\ forall m, coeff (cdict (pcont a)) m = coeff (cdict (pcont b)) m)).
Proof. exact @meq_iff. Qed.
Print Assumptions C22_meq_iff.
