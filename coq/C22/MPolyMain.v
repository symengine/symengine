(* C22 -- reconcile and translate stated without [positions] and [sublist] (the translators are the
   index vectors, and an index is a position), and the refutation witnesses for the unguarded
   "true arithmetic" statements (32-bit exponent wrap). *)
From SE Require Import C22.MPolySpec C22.MPolyDict C22.MPolyRec.
From Coq Require Import Lia.
Local Open Scope Z_scope.

Section Main.
  Context {V : Type}.
  Variable vlt : V -> V -> bool.
  Variable veqb : V -> V -> bool.
  Hypothesis laws : order_laws vlt veqb.

  Lemma index_in_nth : forall s x, In x s -> nth_error s (N.to_nat (index_in veqb s x)) = Some x.
  Proof.
    induction s as [|y s IH]; intros x H; [destruct H|].
    destruct (veqb_spec vlt veqb laws x y) as [->|E].
    - rewrite (index_in_head vlt veqb laws). reflexivity.
    - destruct H as [H|H]; [congruence|]. rewrite (index_in_tail vlt veqb laws) by assumption.
      replace (N.to_nat (1 + index_in veqb s x)) with (S (N.to_nat (index_in veqb s x))) by lia.
      apply IH. assumption.
  Qed.

  Theorem reconcile_spec_main : forall s1 s2, sorted vlt s1 -> sorted vlt s2 ->
    let '(v1, v2, s, sz) := reconcile vlt veqb s1 s2 in
    sorted vlt s /\ (forall y, In y s <-> In y s1 \/ In y s2) /\
    v1 = map (index_in veqb s) s1 /\ v2 = map (index_in veqb s) s2 /\ sz = len s /\
    (forall x, In x s -> nth_error s (N.to_nat (index_in veqb s x)) = Some x).
  Proof.
    intros s1 s2 H1 H2. pose proof (reconcile_spec vlt veqb laws s1 s2 H1 H2) as R.
    destruct (reconcile vlt veqb s1 s2) as [[[v1 v2] s] sz].
    destruct R as [Ss [Hin [_ [_ [E1 [E2 Esz]]]]]].
    split; [assumption|]. split; [assumption|]. rewrite positions_0 in E1, E2.
    split; [assumption|]. split; [assumption|]. split; [assumption|]. apply index_in_nth.
  Qed.

  (* translate with the translator computed by reconcile: same polynomial over the union;
     every key keeps the exponent of every generator *)
  Theorem translate_preserves_value : forall s1 s2 a, sorted vlt s1 -> sorted vlt s2 ->
    cont_ok a -> csize a = len s1 ->
    let '(v1, v2, s, sz) := reconcile vlt veqb s1 s2 in
    exists r, ctranslate a v1 sz = Ok r /\ cont_ok r /\ csize r = len s /\
      (forall m, coeff (cdict r) m = coeffL (lift veqb s s1 (cdict a)) m) /\
      (forall k u, In u s -> expo veqb s (embed veqb s s1 k) u = expo veqb s1 k u).
  Proof.
    intros s1 s2 a H1 H2 Oa Ea. pose proof (reconcile_spec vlt veqb laws s1 s2 H1 H2) as R.
    destruct (reconcile vlt veqb s1 s2) as [[[v1 v2] s] sz].
    destruct R as [Ss [Hin [_ [_ [E1 [_ Esz]]]]]]. subst v1 sz. rewrite positions_0.
    pose proof (sorted_NoDup vlt veqb laws) as ND.
    destruct (ctranslate_spec vlt veqb laws s s1 a) as [r [Er [Or [Sr Cr]]]];
      [apply ND; assumption|apply ND; assumption|intros v Hv; apply Hin; left; exact Hv|assumption|assumption|].
    exists r. split; [assumption|]. split; [assumption|]. split; [assumption|]. split; [assumption|].
    intros k u Hu. apply (expo_embed vlt veqb laws). assumption.
  Qed.
End Main.

Definition sx : sym := [120%N].                      (* "x" *)
Definition big_x : spoly := mkPoly [sx] (mkCont [([2147483648%N], 1)] 1).   (* x**(2**31) *)
Definition x65536 : spoly := mkPoly [sx] (mkCont [([65536%N], 1)] 1).       (* x**65536 *)

Lemma single_ok : forall e, (e < W32)%N -> poly_ok sym_lt (mkPoly [sx] (mkCont [([e], 1)] 1)).
Proof.
  intros e He. unfold poly_ok. cbn [pvars pcont]. split; [|split].
  - constructor; constructor.
  - reflexivity.
  - unfold cont_ok, dict_ok. cbn [cdict csize map fst]. split.
    + constructor; [intros []|constructor].
    + constructor; [|constructor]. cbn [fst snd]. split; [|discriminate].
      split; [reflexivity|]. constructor; [assumption|constructor].
Qed.

(* the product computed by mul_mpoly is NOT the mathematical product when exponents reach 2^32 *)
Theorem mmul_true_refuted :
  exists a b r : spoly, poly_ok sym_lt a /\ poly_ok sym_lt b /\ s_mul a b = Ok r /\
    exists m, coeff (cdict (pcont r)) m <>
              coeffL (t_mul N.add (lift sym_eqb (pvars r) (pvars a) (cdict (pcont a)))
                                  (lift sym_eqb (pvars r) (pvars b) (cdict (pcont b)))) m.
Proof.
  exists big_x, big_x. eexists. split; [apply single_ok; reflexivity|]. split; [apply single_ok; reflexivity|].
  split; [vm_compute; reflexivity|]. exists [0%N]. vm_compute. discriminate.
Qed.

Theorem mpow_true_refuted :
  exists (a : spoly) (n : N) (r : spoly), poly_ok sym_lt a /\ s_pow a n = Ok r /\
    exists m, coeff (cdict (pcont r)) m <>
              coeffL (t_pow N.add (length (pvars a)) (cdict (pcont a)) (N.to_nat n)) m.
Proof.
  exists big_x, 2%N. eexists. split; [apply single_ok; reflexivity|].
  split; [vm_compute; reflexivity|]. exists [0%N]. vm_compute. discriminate.
Qed.
