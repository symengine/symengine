(* C22 obligation: neg_mpoly keeps the generators and negates every coefficient. *)
From SE Require Import C22.MPolySpec C22.MPolyOps.
Local Open Scope Z_scope.
Theorem C22_mneg_spec :
  forall (V : Type) (vlt : V -> V -> bool) (a : mpoly V), poly_ok vlt a ->
    poly_ok vlt (mneg a) /\ pvars (mneg a) = pvars a /\
    forall m, coeff (cdict (pcont (mneg a))) m = coeffL (t_neg (cdict (pcont a))) m.
Proof. exact @mneg_spec. Qed.
Print Assumptions C22_mneg_spec.
