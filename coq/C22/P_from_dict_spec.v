(* C22 obligation: from_dict (how every operand of the correspondence is built) turns a dictionary
   over an arbitrary duplicate-free generator vector into a well-formed polynomial over the sorted
   generator set, without leaving a vector, and denotes the same polynomial: zero coefficients are
   dropped and every generator keeps its exponent. *)
From SE Require Import C22.MPolySpec C22.MPolyFromDict.
Theorem C22_from_dict_spec :
  forall (V : Type) (vlt veqb : V -> V -> bool), order_laws vlt veqb ->
  forall (v : list V) (d : dict), NoDup v -> NoDup (map fst d) ->
    Forall (fun p => key_ok (length v) (fst p)) d ->
    exists r, from_dict vlt v d = Ok r /\ poly_ok vlt r /\
      (forall x, In x (pvars r) <-> In x v) /\
      forall m, coeff (cdict (pcont r)) m = coeffL (lift veqb (pvars r) v (dnz d)) m.
Proof. exact (@from_dict_spec). Qed.
Print Assumptions C22_from_dict_spec.
