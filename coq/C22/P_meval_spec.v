(* C22 obligation: eval with a valuation that covers the generators returns
   sum of coefficient * prod value(generator)^exponent (no ErrOOB, no missing value). *)
From SE Require Import C22.MPolySpec C22.MPolyEval.
Local Open Scope Z_scope.
Theorem C22_meval_spec :
  forall (V : Type) (vlt : V -> V -> bool) (a : mpoly V) (vals : list (V * Z)),
    poly_ok vlt a -> covers vlt vals (pvars a) ->
    meval vlt a vals = Ok (evalL (cdict (pcont a)) (rho_of vlt vals (pvars a))).
Proof. exact @meval_spec. Qed.
Print Assumptions C22_meval_spec.
