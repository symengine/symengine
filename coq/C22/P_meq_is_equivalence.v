(* C22 obligation: MSymEnginePoly::__eq__ (after fix 32f9657: both operands must be constants for the
   constant shortcut) is reflexive, symmetric and transitive on well-formed polynomials. *)
From SE Require Import C22.MPolySpec C22.MPolyEq.
Local Open Scope Z_scope.
Theorem C22_meq_is_equivalence :
  forall (V : Type) (vlt veqb : V -> V -> bool), order_laws vlt veqb ->
  (forall a : mpoly V, poly_ok vlt a -> meq veqb a a = true) /\
  (forall a b : mpoly V, poly_ok vlt a -> poly_ok vlt b -> meq veqb a b = true -> meq veqb b a = true) /\
  (forall a b c : mpoly V, poly_ok vlt a -> poly_ok vlt b -> poly_ok vlt c ->
     meq veqb a b = true -> meq veqb b c = true -> meq veqb a c = true).
Proof. exact @meq_is_equivalence. Qed.
Print Assumptions C22_meq_is_equivalence.
