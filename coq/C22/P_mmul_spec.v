(* C22 obligation: mul_mpoly (operator*= with its three shortcuts, UDictWrapper::mul) over ANY two
   generator sets succeeds, is well-formed over the union, and is the schoolbook product of the
   operands written over the union -- with exponents added as the code adds them (unsigned 32-bit).
   The statement with mathematical exponent addition is refuted (P_mmul_true_refuted.v) and
   proved under the no-wrap guard (P_mmul_spec_guarded.v). *)
From SE Require Import C22.MPolySpec C22.MPolyOps.
Local Open Scope Z_scope.
Theorem C22_mmul_spec :
  forall (V : Type) (vlt veqb : V -> V -> bool), order_laws vlt veqb ->
  forall a b : mpoly V, poly_ok vlt a -> poly_ok vlt b ->
    exists r, mmul vlt veqb a b = Ok r /\ poly_ok vlt r /\
      (forall v, In v (pvars r) <-> In v (pvars a) \/ In v (pvars b)) /\
      forall m, coeff (cdict (pcont r)) m =
        coeffL (t_mul uadd (lift veqb (pvars r) (pvars a) (cdict (pcont a)))
                   (lift veqb (pvars r) (pvars b) (cdict (pcont b)))) m.
Proof. exact @mmul_spec_w. Qed.
Print Assumptions C22_mmul_spec.
