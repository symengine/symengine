(* C22 -- MSymEnginePoly::__eq__ and MIntPoly::__hash__ (after the repairs 32f9657 / 6bb32d4):
   __eq__ holds exactly when both polynomials are the same constant, or have the same generators
   and the same coefficient function; it is an equivalence relation; equal polynomials have equal
   hashes. *)
From SE Require Import C22.MPolySpec C22.MPolyDict.
From Coq Require Import Lia Permutation.
Local Open Scope Z_scope.

Lemma NoDup_pairs : forall (d : dict), NoDup (map fst d) -> NoDup d.
Proof. intros d H. eapply NoDup_map_inv. exact H. Qed.

(* unordered_eq holds exactly when the two dictionaries have the same entries *)
Lemma dict_eqb_perm : forall a b, NoDup (map fst a) -> NoDup (map fst b) ->
  (dict_eqb a b = true <-> Permutation a b).
Proof.
  intros a b NDa NDb. unfold dict_eqb. rewrite andb_true_iff, Nat.eqb_eq, forallb_forall. split.
  - intros [L H]. apply NoDup_Permutation_bis; [apply NoDup_pairs; assumption|lia|].
    intros [k c] Hp. specialize (H _ Hp). cbn [fst snd] in H.
    destruct (dfind k b) as [v|] eqn:F; [|discriminate]. apply Z.eqb_eq in H. subst v.
    apply dfind_some_in. assumption.
  - intros P. split; [apply Permutation_length; assumption|].
    intros [k c] Hp. cbn [fst snd]. rewrite (in_dfind b k c NDb (Permutation_in _ P Hp)). apply Z.eqb_refl.
Qed.

Definition vals_nz (d : dict) : Prop := Forall (fun p => snd p <> 0) d.

Lemma coeff_eq_incl : forall a b, NoDup (map fst a) -> vals_nz a ->
  (forall m, coeff a m = coeff b m) -> incl a b.
Proof.
  intros a b ND NZ H [k c] Hp.
  assert (Hc : c <> 0) by (unfold vals_nz in NZ; rewrite Forall_forall in NZ; apply (NZ _ Hp)).
  pose proof (in_dfind a k c ND Hp) as Fa. specialize (H k). unfold coeff in H. rewrite Fa in H.
  destruct (dfind k b) as [v|] eqn:Fb; [|congruence]. subst v. apply dfind_some_in. assumption.
Qed.

(* uniqueness of the normal form: a dictionary with distinct keys and no zero value is determined
   by its coefficient function, up to the order of its entries *)
Lemma coeff_eq_perm : forall a b, NoDup (map fst a) -> NoDup (map fst b) -> vals_nz a -> vals_nz b ->
  ((forall m, coeff a m = coeff b m) <-> Permutation a b).
Proof.
  intros a b NDa NDb NZa NZb. split.
  - intros H. apply NoDup_Permutation; try (apply NoDup_pairs; assumption).
    intros p. split; apply coeff_eq_incl; try assumption. intros m. symmetry. apply H.
  - intros P m. unfold coeff. destruct (dfind m a) as [c|] eqn:Fa.
    + apply dfind_some_in in Fa. rewrite (in_dfind b m c NDb (Permutation_in _ P Fa)). reflexivity.
    + destruct (dfind m b) as [c|] eqn:Fb; [|reflexivity]. apply dfind_some_in in Fb.
      rewrite (in_dfind a m c NDa (Permutation_in _ (Permutation_sym P) Fb)) in Fa. discriminate.
Qed.

Lemma lxor_fold_perm : forall (h : mono * Z -> N) a b seed, Permutation a b ->
  fold_left (fun s p => N.lxor s (h p)) a seed = fold_left (fun s p => N.lxor s (h p)) b seed.
Proof.
  intros h a b seed P. revert seed. induction P as [|x l l' P IH|x y l|l l' l'' P1 IH1 P2 IH2]; intros seed; cbn [fold_left].
  - reflexivity.
  - apply IH.
  - f_equal. rewrite !N.lxor_assoc. f_equal. apply N.lxor_comm.
  - rewrite IH1. apply IH2.
Qed.

Lemma is_constant_perm : forall a b, Permutation a b -> is_constant_dict a = is_constant_dict b.
Proof.
  intros a b P. destruct a as [|pa [|pa2 ra]].
  - apply Permutation_nil in P. subst. reflexivity.
  - apply Permutation_length_1_inv in P. subst. reflexivity.
  - pose proof (Permutation_length P) as L. destruct b as [|pb [|pb2 rb]]; try discriminate.
    destruct pa, pb. reflexivity.
Qed.

Lemma forallb_zeros : forall n, forallb (fun e => (e =? 0)%N) (zeros n) = true.
Proof.
  intros n. unfold zeros. apply forallb_forall. intros e He. apply repeat_spec in He. subst. reflexivity.
Qed.

Section Eq.
  Context {V : Type}.
  Variable vlt : V -> V -> bool.
  Variable veqb : V -> V -> bool.
  Variable vstr : V -> list N.
  Hypothesis laws : order_laws vlt veqb.

  Let eqb_eq := ol_eqb vlt veqb laws.

  Lemma vars_eqb_eq : forall a b, vars_eqb veqb a b = true <-> a = b.
  Proof.
    induction a as [|x a IH]; destruct b as [|y b]; cbn [vars_eqb]; split; intros H;
      try reflexivity; try discriminate.
    - apply andb_prop in H as [H1 H2]. apply eqb_eq in H1. apply IH in H2. congruence.
    - injection H as -> ->. apply andb_true_intro. split; [apply eqb_eq; reflexivity|apply IH; reflexivity].
  Qed.

  Notation dct a := (cdict (pcont a)).
  Notation zv a := (zeros (len (pvars a))).

  (* the two ways of being equal *)
  Definition isconst (a : mpoly V) : Prop := forall m, m <> zv a -> coeff (dct a) m = 0.
  Definition cv (a : mpoly V) : Z := coeff (dct a) (zv a).
  Definition same_poly (a b : mpoly V) : Prop :=
    (isconst a /\ isconst b /\ cv a = cv b) \/
    (pvars a = pvars b /\ forall m, coeff (dct a) m = coeff (dct b) m).

  Definition zbranch (a b : mpoly V) : bool := vars_eqb veqb (pvars a) (pvars b) && dict_eqb (dct a) (dct b).
  Definition constlike (a b : mpoly V) : Prop :=
    (dct a = [] /\ dct b = []) \/ (exists c, dct a = [(zv a, c)] /\ dct b = [(zv b, c)]).

  (* __eq__ read off its definition: the general comparison, or the shortcut for two constants *)
  Lemma meq_alt : forall a b, meq veqb a b = true <-> zbranch a b = true \/ constlike a b.
  Proof.
    intros a b. unfold meq, zbranch, constlike. split.
    - destruct (dct a) as [|[ka ca] [|pa2 ra]]; destruct (dct b) as [|[kb cb] [|pb2 rb]]; intros H;
        try (left; exact H); try (right; left; split; reflexivity).
      destruct (Z.eqb_spec ca cb) as [E|E]; cbn [negb] in H; [subst cb|discriminate].
      destruct (mono_eqb ka kb && vars_eqb veqb (pvars a) (pvars b)) eqn:T1.
      + left. apply andb_prop in T1 as [T1 T2]. rewrite T2. unfold dict_eqb.
        cbn [length Nat.eqb forallb fst snd dfind andb]. rewrite T1, Z.eqb_refl. reflexivity.
      + destruct (mono_eqb ka (zv a) && mono_eqb kb (zv b)) eqn:T2; [|discriminate].
        apply andb_prop in T2 as [T2 T3]. apply mono_eqb_eq in T2, T3. subst.
        right. right. exists ca. split; reflexivity.
    - intros [H|[[-> ->]|[c [-> ->]]]]; [|reflexivity|].
      + destruct (dct a) as [|[ka ca] [|pa2 ra]]; destruct (dct b) as [|[kb cb] [|pb2 rb]];
          try exact H; try reflexivity.
        apply andb_prop in H as [H1 H2]. unfold dict_eqb in H2.
        cbn [length Nat.eqb forallb fst snd dfind andb] in H2.
        destruct (mono_eqb ka kb); [|discriminate]. rewrite andb_true_r in H2. rewrite H2, H1. reflexivity.
      + rewrite Z.eqb_refl, !mono_eqb_refl. cbn [negb andb].
        destruct (mono_eqb (zv a) (zv b) && vars_eqb veqb (pvars a) (pvars b)); reflexivity.
  Qed.

  (* by uniqueness of the normal form, a constant polynomial has the one normal form of its constant *)
  Lemma isconst_shape : forall a, poly_ok vlt a -> isconst a ->
    dct a = if cv a =? 0 then [] else [(zv a, cv a)].
  Proof.
    intros a Ha Hc. pose proof (poly_ok_dict vlt a Ha) as Da.
    assert (P : Permutation (if cv a =? 0 then [] else [(zv a, cv a)]) (dct a)).
    { apply coeff_eq_perm; try apply Da; try apply (dict_ok_nz _ _ Da).
      - destruct (cv a =? 0); repeat constructor. intros [].
      - destruct (Z.eqb_spec (cv a) 0); repeat constructor. assumption.
      - intros m. destruct (mono_eq_dec m (zv a)) as [->|Hm].
        + fold (cv a). destruct (Z.eqb_spec (cv a) 0) as [E|E]; [symmetry; exact E|].
          rewrite coeff_cons, mono_eqb_refl. reflexivity.
        + rewrite (Hc m Hm). destruct (cv a =? 0); [reflexivity|]. rewrite coeff_cons.
          destruct (mono_eqb_spec m (zv a)); [contradiction|reflexivity]. }
    destruct (cv a =? 0); [apply Permutation_nil|apply Permutation_length_1_inv]; exact P.
  Qed.

  Lemma constlike_iff : forall a b, poly_ok vlt a -> poly_ok vlt b ->
    (constlike a b <-> isconst a /\ isconst b /\ cv a = cv b).
  Proof.
    intros a b Ha Hb. split.
    - intros [[Ea Eb]|[c [Ea Eb]]]; unfold isconst, cv; rewrite Ea, Eb.
      + repeat split; intros; reflexivity.
      + repeat split.
        * intros m Hm. rewrite coeff_cons. destruct (mono_eqb_spec m (zv a)); [contradiction|reflexivity].
        * intros m Hm. rewrite coeff_cons. destruct (mono_eqb_spec m (zv b)); [contradiction|reflexivity].
        * rewrite !coeff_cons, !mono_eqb_refl. reflexivity.
    - intros [Ca [Cb Ecv]]. unfold constlike.
      rewrite (isconst_shape a Ha Ca), (isconst_shape b Hb Cb), <- Ecv.
      destruct (cv a =? 0); [left; split; reflexivity|right; exists (cv a); split; reflexivity].
  Qed.

  Lemma zbranch_iff : forall a b, poly_ok vlt a -> poly_ok vlt b ->
    (zbranch a b = true <-> pvars a = pvars b /\ forall m, coeff (dct a) m = coeff (dct b) m).
  Proof.
    intros a b Ha Hb. unfold zbranch. rewrite andb_true_iff, vars_eqb_eq.
    pose proof (poly_ok_dict vlt a Ha) as Da. pose proof (poly_ok_dict vlt b Hb) as Db.
    rewrite (dict_eqb_perm _ _ (proj1 Da) (proj1 Db)).
    rewrite (coeff_eq_perm _ _ (proj1 Da) (proj1 Db) (dict_ok_nz _ _ Da) (dict_ok_nz _ _ Db)). reflexivity.
  Qed.

  Theorem meq_iff : forall a b, poly_ok vlt a -> poly_ok vlt b ->
    (meq veqb a b = true <-> same_poly a b).
  Proof.
    intros a b Ha Hb. unfold same_poly.
    rewrite meq_alt, (constlike_iff a b Ha Hb), (zbranch_iff a b Ha Hb). tauto.
  Qed.

  Lemma isconst_transfer : forall a b, pvars a = pvars b -> (forall m, coeff (dct a) m = coeff (dct b) m) ->
    isconst a -> isconst b /\ cv b = cv a.
  Proof.
    intros a b Ev Ec Ca. unfold isconst, cv in *. rewrite <- Ev. split.
    - intros m Hm. rewrite <- Ec. apply Ca. assumption.
    - symmetry. apply Ec.
  Qed.

  Theorem meq_is_equivalence :
    (forall a, poly_ok vlt a -> meq veqb a a = true) /\
    (forall a b, poly_ok vlt a -> poly_ok vlt b -> meq veqb a b = true -> meq veqb b a = true) /\
    (forall a b c, poly_ok vlt a -> poly_ok vlt b -> poly_ok vlt c ->
       meq veqb a b = true -> meq veqb b c = true -> meq veqb a c = true).
  Proof.
    split; [|split].
    - intros a Ha. apply (meq_iff a a Ha Ha). right. split; reflexivity.
    - intros a b Ha Hb H. apply (meq_iff b a Hb Ha). apply (meq_iff a b Ha Hb) in H.
      destruct H as [[Ca [Cb E]]|[Ev Ec]]; [left; repeat split; try assumption; symmetry; assumption|].
      right. split; [symmetry; assumption|intros m; symmetry; apply Ec].
    - intros a b c Ha Hb Hc H1 H2. apply (meq_iff a c Ha Hc).
      apply (meq_iff a b Ha Hb) in H1. apply (meq_iff b c Hb Hc) in H2.
      destruct H1 as [[Ca [Cb E1]]|[Ev1 Ec1]]; destruct H2 as [[Cb' [Cc E2]]|[Ev2 Ec2]].
      + left. repeat split; try assumption. congruence.
      + destruct (isconst_transfer b c Ev2 Ec2 Cb) as [Cc E]. left. repeat split; try assumption. congruence.
      + assert (Ev1' : pvars b = pvars a) by (symmetry; assumption).
        assert (Ec1' : forall m, coeff (dct b) m = coeff (dct a) m) by (intros m; symmetry; apply Ec1).
        destruct (isconst_transfer b a Ev1' Ec1' Cb') as [Ca E]. left. repeat split; try assumption. congruence.
      + right. split; [congruence|]. intros m. rewrite Ec1. apply Ec2.
  Qed.

  (* equal polynomials have equal hashes (the law of C01, for MIntPoly) *)
  Theorem meq_hash : forall a b, poly_ok vlt a -> poly_ok vlt b ->
    meq veqb a b = true -> mhash vstr a = mhash vstr b.
  Proof.
    intros a b Ha Hb H. apply meq_alt in H as [Z|[[Ea Eb]|[c [Ea Eb]]]].
    - unfold zbranch in Z. apply andb_prop in Z as [Z1 Z2]. apply vars_eqb_eq in Z1.
      apply (dict_eqb_perm _ _ (proj1 (poly_ok_dict vlt a Ha)) (proj1 (poly_ok_dict vlt b Hb))) in Z2 as P.
      unfold mhash. rewrite Z1. rewrite (is_constant_perm _ _ P).
      destruct (is_constant_dict (dct b)).
      + unfold dict_hash_const. apply lxor_fold_perm. assumption.
      + unfold dict_hash. apply lxor_fold_perm. assumption.
    - unfold mhash. rewrite Ea, Eb. reflexivity.
    - unfold mhash. rewrite Ea, Eb. cbn [is_constant_dict]. rewrite !forallb_zeros. reflexivity.
  Qed.
End Eq.
