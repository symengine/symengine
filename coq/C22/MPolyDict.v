(* C22 -- formal sums (sumL / coeffL / peq), the association-list dictionary read through its
   coefficient function [coeff], and the container operations operator+=, operator-=, unary minus.
   Every specification in C22 has the form "the container x denotes the formal sum L". *)
From SE Require Import C22.MPolySpec.
From Coq Require Import Lia.
Local Open Scope Z_scope.

Notation keys_ok n L := (Forall (fun p : mono * Z => key_ok n (fst p)) L).

Lemma len_length : forall {A} (l : list A), N.to_nat (len l) = length l.
Proof. intros. apply Nat2N.id. Qed.

Lemma mono_eqb_eq : forall a b, mono_eqb a b = true <-> a = b.
Proof.
  induction a as [|x a IH]; destruct b as [|y b]; simpl; split; intros H;
    try reflexivity; try discriminate.
  - apply andb_prop in H as [H1 H2]. apply N.eqb_eq in H1. apply IH in H2. congruence.
  - injection H as -> ->. rewrite N.eqb_refl. simpl. apply IH. reflexivity.
Qed.
Lemma mono_eqb_spec : forall a b, reflect (a = b) (mono_eqb a b).
Proof. intros a b. apply iff_reflect. symmetry. apply mono_eqb_eq. Qed.
Lemma mono_eqb_refl : forall a, mono_eqb a a = true.
Proof. intros a. apply mono_eqb_eq. reflexivity. Qed.
Lemma mono_eqb_sym : forall a b, mono_eqb a b = mono_eqb b a.
Proof.
  intros a b. destruct (mono_eqb_spec a b) as [->|H]; symmetry; [apply mono_eqb_refl|].
  destruct (mono_eqb_spec b a); congruence.
Qed.
Lemma mono_eq_dec : forall a b : mono, {a = b} + {a <> b}.
Proof. intros a b. apply list_eq_dec. apply N.eq_dec. Qed.

Lemma ind_refl : forall k, ind k k = 1.
Proof. intros k. unfold ind. rewrite mono_eqb_refl. reflexivity. Qed.
Lemma ind_neq : forall k m, k <> m -> ind k m = 0.
Proof. intros k m H. unfold ind. destruct (mono_eqb_spec k m); [contradiction|reflexivity]. Qed.
Lemma ind_sym : forall k m, ind k m = ind m k.
Proof. intros k m. unfold ind. rewrite mono_eqb_sym. reflexivity. Qed.

(* [ind k0] under a sum picks the value at k0 *)
Lemma ind_pick : forall k0 k (g : mono -> Z), ind k0 k * g k = ind k k0 * g k0.
Proof. intros. rewrite (ind_sym k0 k). unfold ind. destruct (mono_eqb_spec k k0) as [->|]; reflexivity. Qed.

Lemma sumL_app : forall A B g, sumL (A ++ B) g = sumL A g + sumL B g.
Proof. induction A as [|[k c] A IH]; intros B g; simpl; [reflexivity|]. rewrite IH. ring. Qed.
Lemma sumL_ext_in : forall A g h, (forall k c, In (k, c) A -> g k = h k) -> sumL A g = sumL A h.
Proof.
  induction A as [|[k c] A IH]; intros g h E; cbn [sumL]; [reflexivity|].
  rewrite (E k c) by (left; reflexivity). rewrite (IH g h); [reflexivity|].
  intros k' c' H. apply (E k' c'). right. assumption.
Qed.
Lemma sumL_ext : forall A g h, (forall k, g k = h k) -> sumL A g = sumL A h.
Proof. intros A g h E. apply sumL_ext_in. intros k _ _. apply E. Qed.
Lemma sumL_scale : forall A x g, sumL A (fun k => x * g k) = x * sumL A g.
Proof. induction A as [|[k c] A IH]; intros x g; simpl; [ring|]. rewrite IH. ring. Qed.
Lemma sumL_scale_r : forall A x g, sumL A (fun k => g k * x) = sumL A g * x.
Proof. intros. rewrite Z.mul_comm, <- sumL_scale. apply sumL_ext. intros. apply Z.mul_comm. Qed.
Lemma sumL_plus : forall A g h, sumL A (fun k => g k + h k) = sumL A g + sumL A h.
Proof. induction A as [|[k c] A IH]; intros g h; simpl; [ring|]. rewrite IH. ring. Qed.
Lemma sumL_zero : forall A, sumL A (fun _ => 0) = 0.
Proof. induction A as [|[k c] A IH]; simpl; [reflexivity|]. rewrite IH. ring. Qed.
Lemma sumL_swap : forall A B (h : mono -> mono -> Z),
  sumL A (fun ka => sumL B (fun kb => h ka kb)) = sumL B (fun kb => sumL A (fun ka => h ka kb)).
Proof.
  induction A as [|[k c] A IH]; intros B h; simpl.
  - symmetry. apply sumL_zero.
  - rewrite IH. rewrite <- sumL_scale. rewrite <- sumL_plus. reflexivity.
Qed.

Lemma coeffL_nil : forall m, coeffL [] m = 0.
Proof. reflexivity. Qed.
Lemma coeffL_cons : forall k c A m, coeffL ((k, c) :: A) m = c * ind k m + coeffL A m.
Proof. reflexivity. Qed.
Lemma coeffL_app : forall A B m, coeffL (A ++ B) m = coeffL A m + coeffL B m.
Proof. intros. apply sumL_app. Qed.
Lemma coeffL_rev : forall A m, coeffL (rev A) m = coeffL A m.
Proof.
  induction A as [|[k c] A IH]; intros m; [reflexivity|].
  cbn [rev]. rewrite coeffL_app, IH, !coeffL_cons, coeffL_nil. ring.
Qed.
Lemma coeffL_t_neg : forall A m, coeffL (t_neg A) m = - coeffL A m.
Proof.
  induction A as [|[k c] A IH]; intros m; [reflexivity|].
  unfold t_neg in *. cbn [map fst snd]. rewrite !coeffL_cons, IH. ring.
Qed.
Lemma coeffL_notin : forall A m, ~ In m (map fst A) -> coeffL A m = 0.
Proof.
  induction A as [|[k c] A IH]; intros m H; [reflexivity|].
  rewrite coeffL_cons. simpl in H. rewrite IH by tauto. rewrite ind_neq by tauto. ring.
Qed.
Lemma sumL_ind : forall A k0 g, sumL A (fun k => ind k0 k * g k) = coeffL A k0 * g k0.
Proof. intros. unfold coeffL. rewrite <- sumL_scale_r. apply sumL_ext. intros k. apply ind_pick. Qed.
Lemma coeffL_ones : forall K k, NoDup K -> In k K -> coeffL (map (fun k' => (k', 1)) K) k = 1.
Proof.
  induction 1 as [|k' K Hn ND IH]; intros H; [destruct H|].
  cbn [map]. rewrite coeffL_cons. destruct H as [->|H].
  - rewrite ind_refl, coeffL_notin; [reflexivity|]. rewrite map_map. cbn [fst]. rewrite map_id. exact Hn.
  - rewrite ind_neq, IH by (try assumption; intros ->; contradiction). reflexivity.
Qed.

(* A weighted sum over a formal sum only depends on its coefficient function: over a duplicate-free
   list K that holds the keys of A it is the sum over k in K of coeffL A k * g k.  Write
   g ka = sum over K of ind ka k * g k and exchange the two sums. *)
Lemma sumL_via_keys : forall A K g, NoDup K -> incl (map fst A) K ->
  sumL A g = sumL (map (fun k => (k, 1)) K) (fun k => coeffL A k * g k).
Proof.
  intros A K g ND HK.
  rewrite (sumL_ext_in A g (fun ka => sumL (map (fun k => (k, 1)) K) (fun k => ind ka k * g k))).
  - rewrite sumL_swap. apply sumL_ext. intros k. unfold coeffL. apply sumL_scale_r.
  - intros ka ca H. rewrite sumL_ind, coeffL_ones; [ring|assumption|].
    apply HK. apply (in_map fst) in H. exact H.
Qed.

Lemma sumL_peq : forall A B g, peq A B -> sumL A g = sumL B g.
Proof.
  intros A B g H.
  set (K := nodup mono_eq_dec (map fst A ++ map fst B)).
  rewrite (sumL_via_keys A K g), (sumL_via_keys B K g); try apply NoDup_nodup.
  - apply sumL_ext. intros k. rewrite (H k). reflexivity.
  - intros x Hx. apply nodup_In, in_or_app. right. assumption.
  - intros x Hx. apply nodup_In, in_or_app. left. assumption.
Qed.

Lemma peq_refl : forall A, peq A A.
Proof. intros A m. reflexivity. Qed.
Lemma peq_sym : forall A B, peq A B -> peq B A.
Proof. intros A B H m. symmetry. apply H. Qed.
Lemma peq_trans : forall A B C, peq A B -> peq B C -> peq A C.
Proof. intros A B C H1 H2 m. rewrite H1. apply H2. Qed.
Lemma t_add_peq : forall A A' B B', peq A A' -> peq B B' -> peq (t_add A B) (t_add A' B').
Proof. intros A A' B B' HA HB m. unfold t_add. rewrite !coeffL_app, HA, HB. reflexivity. Qed.
Lemma t_sub_peq : forall A A' B B', peq A A' -> peq B B' -> peq (t_sub A B) (t_sub A' B').
Proof. intros A A' B B' HA HB m. unfold t_sub. rewrite !coeffL_app, !coeffL_t_neg, HA, HB. reflexivity. Qed.

Lemma dfind_cons : forall m k c d,
  dfind m ((k, c) :: d) = if mono_eqb m k then Some c else dfind m d.
Proof. reflexivity. Qed.

Lemma dfind_none_notin : forall d m, dfind m d = None <-> ~ In m (map fst d).
Proof.
  induction d as [|[k c] d IH]; intros m; simpl; [tauto|].
  destruct (mono_eqb_spec m k) as [->|E].
  - split; [discriminate|]. intros H. exfalso. apply H. left. reflexivity.
  - rewrite IH. split; intros H; [intros [F|F]; [congruence|contradiction]|tauto].
Qed.
Lemma dfind_some_in : forall d m c, dfind m d = Some c -> In (m, c) d.
Proof.
  induction d as [|[k c0] d IH]; intros m c H; simpl in *; [discriminate|].
  destruct (mono_eqb_spec m k) as [->|E].
  - injection H as ->. left. reflexivity.
  - right. apply IH. assumption.
Qed.
Lemma in_dfind : forall d m c, NoDup (map fst d) -> In (m, c) d -> dfind m d = Some c.
Proof.
  induction d as [|[k c0] d IH]; intros m c ND H; simpl in *; [contradiction|].
  apply NoDup_cons_iff in ND as [Hn ND]. destruct H as [H|H].
  - injection H as -> ->. rewrite mono_eqb_refl. reflexivity.
  - destruct (mono_eqb_spec m k) as [->|E]; [|apply IH; assumption].
    exfalso. apply Hn. apply (in_map fst) in H. assumption.
Qed.

Lemma coeff_cons : forall m k c d, coeff ((k, c) :: d) m = if mono_eqb m k then c else coeff d m.
Proof. intros. unfold coeff. rewrite dfind_cons. destruct (mono_eqb m k); reflexivity. Qed.

Lemma coeff_coeffL : forall d m, NoDup (map fst d) -> coeff d m = coeffL d m.
Proof.
  induction d as [|[k c] d IH]; intros m ND; [reflexivity|].
  apply NoDup_cons_iff in ND as [Hn ND].
  rewrite coeff_cons, coeffL_cons, (ind_sym k m). unfold ind.
  destruct (mono_eqb_spec m k) as [->|E]; [rewrite coeffL_notin by assumption|rewrite IH by assumption]; ring.
Qed.

Lemma keys_derase_incl : forall d k x, In x (map fst (derase k d)) -> In x (map fst d).
Proof.
  induction d as [|[k' c] d IH]; intros k x H; simpl in *; [assumption|].
  destruct (mono_eqb k k'); simpl in *; [right; assumption|].
  destruct H as [H|H]; [left; assumption|right; eapply IH; eassumption].
Qed.
Lemma NoDup_derase : forall d k, NoDup (map fst d) -> NoDup (map fst (derase k d)).
Proof.
  induction d as [|[k' c] d IH]; intros k ND; simpl in *; [assumption|].
  apply NoDup_cons_iff in ND as [Hn ND].
  destruct (mono_eqb k k'); simpl; [assumption|].
  constructor; [|apply IH; assumption]. intros H. apply Hn. eapply keys_derase_incl. eassumption.
Qed.
Lemma Forall_derase : forall (P : mono * Z -> Prop) d k, Forall P d -> Forall P (derase k d).
Proof.
  induction d as [|[k' c] d IH]; intros k H; simpl; [assumption|].
  apply Forall_cons_iff in H as [H1 H2].
  destruct (mono_eqb k k'); [assumption|]. constructor; [assumption|apply IH; assumption].
Qed.
Lemma dfind_derase : forall d k m, NoDup (map fst d) ->
  dfind m (derase k d) = if mono_eqb m k then None else dfind m d.
Proof.
  induction d as [|[k' c] d IH]; intros k m ND; simpl.
  - destruct (mono_eqb m k); reflexivity.
  - apply NoDup_cons_iff in ND as [Hn ND].
    destruct (mono_eqb_spec k k') as [<-|E]; simpl.
    + destruct (mono_eqb_spec m k) as [->|E2]; [|reflexivity]. apply dfind_none_notin. assumption.
    + rewrite IH by assumption.
      destruct (mono_eqb_spec m k') as [->|E3]; [|reflexivity].
      destruct (mono_eqb_spec k' k); [congruence|reflexivity].
Qed.

Lemma keys_dupd : forall d k v, map fst (dupd k v d) = map fst d.
Proof.
  induction d as [|[k' c] d IH]; intros k v; simpl; [reflexivity|].
  destruct (mono_eqb k k'); simpl; [reflexivity|]. rewrite IH. reflexivity.
Qed.
Lemma Forall_dupd : forall (P : mono * Z -> Prop) d k v, Forall P d -> P (k, v) -> Forall P (dupd k v d).
Proof.
  induction d as [|[k' c] d IH]; intros k v H Hp; simpl; [constructor|].
  apply Forall_cons_iff in H as [H1 H2]. destruct (mono_eqb_spec k k') as [<-|E].
  - constructor; assumption.
  - constructor; [assumption|apply IH; assumption].
Qed.
Lemma dfind_dupd : forall d k v m,
  dfind m (dupd k v d) =
  if mono_eqb m k then match dfind k d with Some _ => Some v | None => None end else dfind m d.
Proof.
  induction d as [|[k' c] d IH]; intros k v m; simpl.
  - destruct (mono_eqb m k); reflexivity.
  - destruct (mono_eqb_spec k k') as [<-|E]; simpl.
    + destruct (mono_eqb m k); reflexivity.
    + rewrite IH. destruct (mono_eqb_spec m k') as [->|E3]; [|reflexivity].
      destruct (mono_eqb_spec k' k); [congruence|reflexivity].
Qed.

(* what the three ways of changing a dictionary do to its coefficient function *)
Lemma coeff_fresh : forall d k c m, dfind k d = None -> coeff ((k, c) :: d) m = coeff d m + c * ind k m.
Proof.
  intros d k c m F. rewrite coeff_cons, (ind_sym k m). unfold ind.
  destruct (mono_eqb_spec m k) as [->|]; [|ring]. unfold coeff. rewrite F. ring.
Qed.
Lemma coeff_dupd : forall d k t v m, dfind k d = Some t ->
  coeff (dupd k v d) m = coeff d m + (v - t) * ind k m.
Proof.
  intros d k t v m F. unfold coeff. rewrite dfind_dupd, (ind_sym k m). unfold ind.
  destruct (mono_eqb_spec m k) as [->|]; [rewrite F|]; ring.
Qed.
Lemma coeff_derase : forall d k t m, NoDup (map fst d) -> dfind k d = Some t ->
  coeff (derase k d) m = coeff d m - t * ind k m.
Proof.
  intros d k t m ND F. unfold coeff. rewrite dfind_derase by assumption. rewrite (ind_sym k m). unfold ind.
  destruct (mono_eqb_spec m k) as [->|]; [rewrite F|]; ring.
Qed.

Lemma keys_dnz_incl : forall d x, In x (map fst (dnz d)) -> In x (map fst d).
Proof.
  intros d x H. apply in_map_iff in H as [p [E H]]. apply filter_In in H as [H _].
  apply in_map_iff. exists p. split; assumption.
Qed.
Lemma NoDup_dnz : forall d, NoDup (map fst d) -> NoDup (map fst (dnz d)).
Proof.
  induction d as [|[k c] d IH]; intros ND; simpl; [constructor|].
  apply NoDup_cons_iff in ND as [Hn ND].
  destruct (negb (c =? 0)); simpl; [|apply IH; assumption].
  constructor; [|apply IH; assumption]. intros H. apply Hn. apply keys_dnz_incl. assumption.
Qed.
Lemma coeff_dnz : forall d m, NoDup (map fst d) -> coeff (dnz d) m = coeff d m.
Proof.
  induction d as [|[k c] d IH]; intros m ND; [reflexivity|].
  cbn [map fst] in ND. apply NoDup_cons_iff in ND as [Hn ND]. cbn [dnz filter snd].
  destruct (Z.eqb_spec c 0) as [->|Ec]; cbn [negb]; rewrite !coeff_cons, IH by assumption; [|reflexivity].
  destruct (mono_eqb_spec m k) as [->|E]; [|reflexivity].
  unfold coeff. apply dfind_none_notin in Hn. rewrite Hn. reflexivity.
Qed.
Lemma Forall_dnz : forall (P : mono * Z -> Prop) d, Forall P d -> Forall (fun p => P p /\ snd p <> 0) (dnz d).
Proof.
  intros P d H. apply Forall_forall. intros p Hp. apply filter_In in Hp as [Hp Hz].
  split; [eapply Forall_forall; eassumption|]. apply Z.eqb_neq. apply negb_true_iff. assumption.
Qed.

Lemma dict_ok_parts : forall n d,
  dict_ok n d <-> NoDup (map fst d) /\ keys_ok n d /\ Forall (fun p => snd p <> 0) d.
Proof.
  intros n d. unfold dict_ok. split.
  - intros [ND H]. apply Forall_and_inv in H as [H1 H2]. auto.
  - intros [ND [H1 H2]]. split; [assumption|apply Forall_and; assumption].
Qed.
Lemma dict_ok_keys : forall n d, dict_ok n d -> NoDup (map fst d).
Proof. intros n d H. apply H. Qed.
Lemma dict_ok_keys_ok : forall n d, dict_ok n d -> keys_ok n d.
Proof. intros n d H. apply dict_ok_parts in H. apply H. Qed.
Lemma dict_ok_nz : forall n d, dict_ok n d -> Forall (fun p => snd p <> 0) d.
Proof. intros n d H. apply dict_ok_parts in H. apply H. Qed.
Lemma dict_ok_dnz : forall n d, NoDup (map fst d) -> keys_ok n d -> dict_ok n (dnz d).
Proof. intros n d ND HK. split; [apply NoDup_dnz; assumption|apply (Forall_dnz _ _ HK)]. Qed.
Lemma keys_ok_lens : forall n (L : terms), keys_ok n L -> Forall (fun p => length (fst p) = n) L.
Proof. intros n L H. eapply Forall_impl; [|exact H]. intros p [K _]. exact K. Qed.
Lemma cont_ok_keys : forall c, cont_ok c -> keys_ok (N.to_nat (csize c)) (cdict c).
Proof. intros c H. exact (dict_ok_keys_ok _ _ H). Qed.
Lemma poly_ok_dict : forall {V} (vlt : V -> V -> bool) a,
  poly_ok vlt a -> dict_ok (length (pvars a)) (cdict (pcont a)).
Proof. intros V vlt a [_ [L O]]. unfold cont_ok in O. rewrite <- L, len_length in O. exact O. Qed.

Definition denotes (x : cont) (L : terms) : Prop := forall m, coeff (cdict x) m = coeffL L m.

Lemma denotes_self : forall x, cont_ok x -> denotes x (cdict x).
Proof. intros x [ND _] m. apply coeff_coeffL. assumption. Qed.
Lemma denotes_peq : forall x L, cont_ok x -> denotes x L -> peq (cdict x) L.
Proof. intros x L O H m. rewrite <- (denotes_self x O). apply H. Qed.
Lemma denotes_trans : forall x L L', denotes x L -> peq L L' -> denotes x L'.
Proof. intros x L L' H P m. rewrite H. apply P. Qed.

(* The step of operator+=, the step of operator-= (on the negated coefficient) and the accumulation
   of UDictWrapper::mul are one function, up to whether an entry that becomes 0 is erased: *)
Definition upsert (drop0 : bool) (d : dict) (k : mono) (c : Z) : dict :=
  match dfind k d with
  | Some t => if drop0 && (t + c =? 0) then derase k d else dupd k (t + c) d
  | None => (k, c) :: d
  end.
Lemma dsub_step_upsert : forall d p, dsub_step d p = upsert true d (fst p) (- snd p).
Proof. reflexivity. Qed.
Lemma mul_acc_upsert : forall p t c, mul_acc p t c = upsert false p t c.
Proof. reflexivity. Qed.

Lemma upsert_coeff : forall b d k c m, NoDup (map fst d) ->
  coeff (upsert b d k c) m = coeff d m + c * ind k m.
Proof.
  intros b d k c m ND. unfold upsert. destruct (dfind k d) as [t|] eqn:F; [|apply coeff_fresh; assumption].
  destruct (b && (t + c =? 0)) eqn:E.
  - apply andb_prop in E as [_ E]. apply Z.eqb_eq in E.
    rewrite (coeff_derase d k t) by assumption. replace c with (- t) by lia. ring.
  - rewrite (coeff_dupd d k t) by assumption. ring.
Qed.
Lemma upsert_NoDup : forall b d k c, NoDup (map fst d) -> NoDup (map fst (upsert b d k c)).
Proof.
  intros b d k c ND. unfold upsert. destruct (dfind k d) eqn:F.
  - destruct (b && _); [apply NoDup_derase|rewrite keys_dupd]; assumption.
  - cbn [map fst]. constructor; [apply dfind_none_notin|]; assumption.
Qed.
Lemma upsert_Forall : forall (P : mono * Z -> Prop) b d k c, Forall P d -> P (k, c) ->
  (forall t, b && (t + c =? 0) = false -> P (k, t + c)) -> Forall P (upsert b d k c).
Proof.
  intros P b d k c HF Hp Hupd. unfold upsert. destruct (dfind k d) as [t|]; [|constructor; assumption].
  destruct (b && (t + c =? 0)) eqn:E; [apply Forall_derase|apply Forall_dupd; [|apply Hupd]]; assumption.
Qed.

(* a whole formal sum accumulated into a dictionary: its coefficient function is added *)
Definition accum (drop0 : bool) (d : dict) (L : terms) : dict :=
  fold_left (fun d p => upsert drop0 d (fst p) (snd p)) L d.

Lemma accum_spec : forall b n L d, NoDup (map fst d) -> keys_ok n d -> keys_ok n L ->
  NoDup (map fst (accum b d L)) /\ keys_ok n (accum b d L) /\
  forall m, coeff (accum b d L) m = coeff d m + coeffL L m.
Proof.
  induction L as [|[k c] L IH]; intros d ND HK HL; cbn [accum fold_left fst snd].
  - split; [assumption|]. split; [assumption|]. intros m. rewrite coeffL_nil. ring.
  - apply Forall_cons_iff in HL as [Hk HL].
    destruct (IH (upsert b d k c)) as [N' [K' C']];
      [apply upsert_NoDup; assumption|apply upsert_Forall; auto|assumption|].
    split; [assumption|]. split; [assumption|].
    intros m. rewrite C', upsert_coeff, coeffL_cons by assumption. ring.
Qed.

(* with erasure, no zero value comes in *)
Lemma accum_nz : forall L d, Forall (fun p => snd p <> 0) d -> Forall (fun p => snd p <> 0) L ->
  Forall (fun p => snd p <> 0) (accum true d L).
Proof.
  induction L as [|[k c] L IH]; intros d Hd HL; [assumption|]. apply Forall_cons_iff in HL as [Hc HL].
  apply IH; [|assumption]. apply upsert_Forall; [assumption|assumption|].
  intros t E. apply Z.eqb_neq. exact E.
Qed.
Lemma accum_ok : forall n L d, dict_ok n d -> dict_ok n L ->
  dict_ok n (accum true d L) /\ forall m, coeff (accum true d L) m = coeff d m + coeffL L m.
Proof.
  intros n L d Hd HL. apply dict_ok_parts in Hd as [ND [HK NZ]]. apply dict_ok_parts in HL as [_ [HKL NZL]].
  destruct (accum_spec true n L d ND HK HKL) as [ND' [HK' C]].
  split; [|exact C]. apply dict_ok_parts. split; [assumption|]. split; [assumption|].
  apply accum_nz; assumption.
Qed.

(* operator+= accumulates the terms of b; operator-= accumulates them negated *)
Lemma fold_dadd_accum : forall B A, fold_left dadd_step B A = accum true A B.
Proof. reflexivity. Qed.
Lemma fold_dsub_neg : forall B A, fold_left dsub_step B A = accum true A (t_neg B).
Proof.
  induction B as [|p B IH]; intros A; [reflexivity|].
  cbn [fold_left t_neg map accum]. rewrite dsub_step_upsert. apply IH.
Qed.

Theorem cadd_spec : forall a b, cont_ok a -> cont_ok b -> csize a = csize b ->
  cont_ok (cadd a b) /\ csize (cadd a b) = csize a /\ denotes (cadd a b) (t_add (cdict a) (cdict b)).
Proof.
  intros a b Ha Hb E. unfold cont_ok in Hb. rewrite <- E in Hb.
  unfold cadd. rewrite fold_dadd_accum.
  destruct (accum_ok _ (cdict b) (cdict a) Ha Hb) as [H1 H2].
  split; [exact H1|]. split; [reflexivity|].
  intros m. unfold t_add. rewrite coeffL_app, <- (denotes_self a Ha). apply H2.
Qed.

(* multiplying every value by a non-zero constant keeps a dictionary well-formed *)
Lemma scale_ok : forall n (x : Z) d, x <> 0 -> dict_ok n d -> dict_ok n (map (fun p => (fst p, snd p * x)) d).
Proof.
  intros n x d Hx [ND HF]. split; [rewrite map_map; exact ND|].
  rewrite Forall_map. eapply Forall_impl; [|exact HF]. intros p [Hk Hc]. split; [exact Hk|].
  apply Z.neq_mul_0. split; assumption.
Qed.

(* unary minus computes the negated term list *)
Lemma cneg_t_neg : forall a, cdict (cneg a) = t_neg (cdict a).
Proof. intros a. apply map_ext. intros p. rewrite <- Z.opp_eq_mul_m1. reflexivity. Qed.

Theorem cneg_spec : forall a, cont_ok a ->
  cont_ok (cneg a) /\ csize (cneg a) = csize a /\ denotes (cneg a) (t_neg (cdict a)).
Proof.
  intros a Oa. assert (On : cont_ok (cneg a)) by (apply scale_ok; [discriminate|exact Oa]).
  split; [exact On|]. split; [reflexivity|]. rewrite <- cneg_t_neg. apply denotes_self. exact On.
Qed.

Theorem csub_spec : forall a b, cont_ok a -> cont_ok b -> csize a = csize b ->
  cont_ok (csub a b) /\ csize (csub a b) = csize a /\ denotes (csub a b) (t_sub (cdict a) (cdict b)).
Proof.
  intros a b Ha Hb E. apply cneg_spec in Hb as [Hn _]. unfold cont_ok in Hn. rewrite cneg_t_neg in Hn.
  cbn [cneg csize] in Hn. rewrite <- E in Hn.
  unfold csub. rewrite fold_dsub_neg.
  destruct (accum_ok _ (t_neg (cdict b)) (cdict a) Ha Hn) as [H1 H2].
  split; [exact H1|]. split; [reflexivity|].
  intros m. unfold t_sub. rewrite coeffL_app, <- (denotes_self a Ha). apply H2.
Qed.
