(* C22 -- the instance used by the correspondence: generators are Symbols (given by their names),
   ordered by RCPBasicKeyLess as modelled in Expr/Cmp.v.  The order laws needed by the generic
   theorems follow from the C02 theorem [keyless_strict_weak_order]. *)
From SE Require Import C22.MPolySpec.
From SE Require Import Expr.ExprDefs Expr.Cmp Expr.NumProofs Expr.CmpProofs.

Lemma sym_eqb_bytes : forall a b, sym_eqb a b = bytes_eqb a b.
Proof. reflexivity. Qed.

Lemma sym_eqb_eq : forall a b, sym_eqb a b = true <-> a = b.
Proof.
  intros a b. rewrite sym_eqb_bytes. unfold bytes_eqb. rewrite Z.eqb_eq. apply bytes_cmp_eq.
Qed.

Theorem sym_order_laws : order_laws sym_lt sym_eqb.
Proof.
  destruct keyless_strict_weak_order as [Irr [Tr Tot]].
  constructor.
  - intros a. apply (Irr (ESym a)). reflexivity.
  - intros a b c. apply (Tr (ESym a) (ESym b) (ESym c)); reflexivity.
  - intros a b H1 H2. apply sym_eqb_eq. apply (Tot (ESym a) (ESym b)); [reflexivity|reflexivity|].
    split; assumption.
  - apply sym_eqb_eq.
Qed.
