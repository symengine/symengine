(* C22 -- MIntPoly::eval: the value is the sum of coefficient * product of powers, and evaluation
   commutes with add_mpoly and (when no exponent wraps) mul_mpoly and pow_mpoly over arbitrary
   generator sets. *)
From SE Require Import C22.MPolySpec C22.MPolyDict C22.MPolyRec C22.MPolyArith C22.MPolyOps.
From Coq Require Import Lia.
Local Open Scope Z_scope.

Notation lens_ok n L := (Forall (fun p : mono * Z => length (fst p) = n) L).

Lemma evalL_peq : forall A B rho, peq A B -> evalL A rho = evalL B rho.
Proof. intros. unfold evalL. apply sumL_peq. assumption. Qed.
Lemma evalL_app : forall A B rho, evalL (A ++ B) rho = evalL A rho + evalL B rho.
Proof. intros. unfold evalL. apply sumL_app. Qed.

Lemma monoval_kadd : forall rho ka kb, length ka = length rho -> length kb = length rho ->
  monoval rho (kadd N.add ka kb) = monoval rho ka * monoval rho kb.
Proof.
  induction rho as [|v rho IH]; intros ka kb La Lb.
  - destruct ka; [|discriminate]. destruct kb; [|discriminate]. reflexivity.
  - destruct ka as [|x ka]; [discriminate|]. destruct kb as [|y kb]; [discriminate|].
    cbn [kadd monoval]. rewrite IH by (cbn in *; lia).
    rewrite N2Z.inj_add. rewrite Z.pow_add_r by lia. ring.
Qed.

Lemma evalL_t_mul : forall A B rho, lens_ok (length rho) A -> lens_ok (length rho) B ->
  evalL (t_mul N.add A B) rho = evalL A rho * evalL B rho.
Proof.
  intros A B rho HA HB. unfold evalL. rewrite sumL_t_mul.
  rewrite (sumL_ext_in A _ (fun ka => monoval rho ka * sumL B (monoval rho))).
  - apply sumL_scale_r.
  - intros ka ca Ha. rewrite Forall_forall in HA. specialize (HA _ Ha). cbn [fst] in HA.
    rewrite <- sumL_scale. apply sumL_ext_in. intros kb cb Hb.
    rewrite Forall_forall in HB. specialize (HB _ Hb). cbn [fst] in HB.
    apply monoval_kadd; assumption.
Qed.

Lemma kadd_length : forall f a b n, length a = n -> length b = n -> length (kadd f a b) = n.
Proof.
  intros f. induction a as [|x a IH]; intros b n La Lb; [destruct b; cbn in *; lia|].
  destruct b as [|y b]; [cbn in *; lia|]. cbn [kadd length]. destruct n as [|n]; [cbn in *; lia|].
  rewrite (IH b n) by (cbn in *; lia). reflexivity.
Qed.
Lemma t_pow_lens : forall f n A k, lens_ok n A -> lens_ok n (t_pow f n A k).
Proof.
  intros f n A k. apply (t_pow_Forall (fun k => length k = n)); [|apply repeat_length].
  intros a b. apply kadd_length.
Qed.
Lemma monoval_zeros : forall rho, monoval rho (repeat 0%N (length rho)) = 1.
Proof. induction rho as [|v rho IH]; cbn [length repeat monoval]; [reflexivity|]. rewrite IH. cbn [Z.of_N]. rewrite Z.pow_0_r. ring. Qed.

Lemma evalL_t_pow : forall rho A k, lens_ok (length rho) A ->
  evalL (t_pow N.add (length rho) A k) rho = evalL A rho ^ Z.of_nat k.
Proof.
  intros rho A k H. induction k as [|k IH].
  - cbn [t_pow]. unfold evalL. cbn [sumL]. rewrite monoval_zeros. cbn. ring.
  - cbn [t_pow]. rewrite evalL_t_mul by (try assumption; apply t_pow_lens; assumption).
    rewrite IH. rewrite Nat2Z.inj_succ, Z.pow_succ_r by lia. reflexivity.
Qed.

Section Eval.
  Context {V : Type}.
  Variable vlt : V -> V -> bool.
  Variable veqb : V -> V -> bool.
  Hypothesis laws : order_laws vlt veqb.

  Notation lift := (lift veqb).
  Notation embed := (embed veqb).
  Notation rho_of := (rho_of vlt).
  Notation covers := (covers vlt).

  Lemma rho_of_cons : forall vals x l,
    rho_of vals (x :: l) = (match vfind vlt x vals with Some v => v | None => 0 end) :: rho_of vals l.
  Proof. reflexivity. Qed.

  Lemma eval_term_spec : forall vals vars k term i lk, covers vals vars -> length k = length vars ->
    eval_term vlt vars k vals term i lk = Ok (term * monoval (rho_of vals vars) k).
  Proof.
    intros vals. induction vars as [|sym vs IH]; intros k term i lk Hc L.
    - destruct k; [|discriminate]. cbn [eval_term MPolySpec.rho_of map monoval]. rewrite Z.mul_1_r. reflexivity.
    - destruct k as [|e k]; [discriminate|]. inversion Hc as [|? ? Hs Hc']; subst.
      rewrite rho_of_cons. cbn [eval_term monoval].
      destruct (vfind vlt sym vals) as [v|] eqn:F; [|contradiction].
      rewrite IH by (try assumption; cbn in L; lia). f_equal. ring.
  Qed.

  Lemma eval_dict_spec : forall vals vars d ans, covers vals vars ->
    Forall (fun p => length (fst p) = length vars) d ->
    eval_dict vlt vars d vals ans = Ok (ans + evalL d (rho_of vals vars)).
  Proof.
    intros vals vars. induction d as [|[k c] d IH]; intros ans Hc HL.
    - cbn. f_equal. unfold evalL. cbn. ring.
    - inversion HL as [|? ? Lk HL']; subst. cbn [fst] in Lk.
      cbn [eval_dict]. rewrite eval_term_spec by assumption. cbn [bind].
      rewrite IH by assumption. f_equal. unfold evalL. cbn [sumL]. ring.
  Qed.

  Lemma poly_ok_lengths : forall a, poly_ok vlt a -> lens_ok (length (pvars a)) (cdict (pcont a)).
  Proof. intros a Ha. apply keys_ok_lens. eapply dict_ok_keys_ok, poly_ok_dict. exact Ha. Qed.

  (* eval: sum over the terms of coefficient * prod value(generator)^exponent *)
  Theorem meval_spec : forall a vals, poly_ok vlt a -> covers vals (pvars a) ->
    meval vlt a vals = Ok (evalL (cdict (pcont a)) (rho_of vals (pvars a))).
  Proof.
    intros a vals Ha Hc. unfold meval. rewrite eval_dict_spec; [f_equal; ring|assumption|].
    apply poly_ok_lengths. assumption.
  Qed.

  Lemma rho_of_length : forall vals U, length (rho_of vals U) = length U.
  Proof. intros. apply map_length. Qed.

  (* how [embed] goes down a sublist *)
  Lemma embed_cons_both : forall it s' i' e k', ~ In it s' ->
    embed (it :: s') (it :: i') (e :: k') = (e :: embed s' i' k')%list.
  Proof.
    intros it s' i' e k' Hn. unfold MPolySpec.embed. cbn [map]. rewrite (expo_head vlt veqb laws). f_equal.
    apply map_ext_in. intros u Hu. apply (expo_tail vlt veqb laws). intros ->. contradiction.
  Qed.
  Lemma embed_skip : forall it s' i k, ~ In it i -> embed (it :: s') i k = (0%N :: embed s' i k)%list.
  Proof.
    intros it s' i k Hn. unfold MPolySpec.embed. cbn [map]. rewrite (expo_notin vlt veqb laws) by assumption.
    reflexivity.
  Qed.
  Lemma embed_nil : forall l k, embed l [] k = repeat 0%N (length l).
  Proof.
    intros l k. unfold MPolySpec.embed. induction l as [|a l IH]; [reflexivity|].
    cbn [map length repeat]. rewrite IH. reflexivity.
  Qed.

  (* the value of a monomial does not change when it is written over more generators *)
  Lemma monoval_embed : forall vals S U, sublist S U -> NoDup U -> forall k, length k = length S ->
    monoval (rho_of vals U) (embed U S k) = monoval (rho_of vals S) k.
  Proof.
    intros vals. induction 1 as [l|x l1 l2 Hs IH|x l1 l2 Hs IH]; intros ND k L.
    - destruct k; [|discriminate]. rewrite embed_nil, <- (rho_of_length vals l). apply monoval_zeros.
    - inversion ND as [|? ? Hn ND']; subst. destruct k as [|e k]; [discriminate|].
      rewrite embed_cons_both by assumption.
      rewrite !rho_of_cons. cbn [monoval]. rewrite IH by (try assumption; cbn in L; lia). reflexivity.
    - inversion ND as [|? ? Hn ND']; subst.
      assert (Hx : ~ In x l1) by (intros K; apply Hn; eapply sublist_incl; eassumption).
      rewrite embed_skip by assumption.
      rewrite rho_of_cons. cbn [monoval]. rewrite IH by assumption. cbn [Z.of_N]. rewrite Z.pow_0_r. ring.
  Qed.

  Lemma evalL_lift : forall vals S U d, sublist S U -> NoDup U ->
    Forall (fun p => length (fst p) = length S) d ->
    evalL (lift U S d) (rho_of vals U) = evalL d (rho_of vals S).
  Proof.
    intros vals S U d Hs ND. induction d as [|[k c] d IH]; intros HL; [reflexivity|].
    inversion HL as [|? ? Lk HL']; subst. cbn [fst] in Lk.
    unfold evalL, MPolySpec.lift in *. cbn [map sumL fst snd].
    rewrite (monoval_embed vals S U Hs ND k Lk). rewrite IH by assumption. reflexivity.
  Qed.

  Lemma covers_union : forall vals s a b, (forall v, In v s <-> In v a \/ In v b) ->
    covers vals a -> covers vals b -> covers vals s.
  Proof.
    intros vals s a b Hin Ca Cb. unfold MPolySpec.covers in *. rewrite Forall_forall in *.
    intros u Hu. apply Hin in Hu as [Hu|Hu]; [apply Ca|apply Cb]; assumption.
  Qed.

  Lemma lift_lengths : forall U S d, Forall (fun p => length (fst p) = length U) (lift U S d).
  Proof.
    intros U S d. apply Forall_forall. intros p Hp. unfold MPolySpec.lift in Hp.
    apply in_map_iff in Hp as [q [<- _]]. cbn [fst]. apply (embed_length veqb).
  Qed.

  Lemma result_sublists : forall a b r : mpoly V, poly_ok vlt a -> poly_ok vlt b -> poly_ok vlt r ->
    (forall v, In v (pvars r) <-> In v (pvars a) \/ In v (pvars b)) ->
    sublist (pvars a) (pvars r) /\ sublist (pvars b) (pvars r) /\ NoDup (pvars r).
  Proof.
    intros a b r [Sa _] [Sb _] [Sr _] Hin. split; [|split].
    - apply (sorted_incl_sublist vlt veqb laws); try assumption. intros v Hv. apply Hin. left. assumption.
    - apply (sorted_incl_sublist vlt veqb laws); try assumption. intros v Hv. apply Hin. right. assumption.
    - apply (sorted_NoDup vlt veqb laws). assumption.
  Qed.

  (* If the coefficient function of r is the operator T of the operands written over the generators
     of r, and evaluation turns T into f, then the value of r is f of the operands' values. *)
  Lemma mbinop_eval : forall (T : terms -> terms -> terms) (f : Z -> Z -> Z),
    (forall A B rho, lens_ok (length rho) A -> lens_ok (length rho) B ->
       evalL (T A B) rho = f (evalL A rho) (evalL B rho)) ->
    forall a b r vals, poly_ok vlt a -> poly_ok vlt b -> covers vals (pvars a) -> covers vals (pvars b) ->
    poly_ok vlt r -> (forall v, In v (pvars r) <-> In v (pvars a) \/ In v (pvars b)) ->
    (forall m, coeff (cdict (pcont r)) m =
       coeffL (T (lift (pvars r) (pvars a) (cdict (pcont a)))
                 (lift (pvars r) (pvars b) (cdict (pcont b)))) m) ->
    exists va vb, meval vlt a vals = Ok va /\ meval vlt b vals = Ok vb /\ meval vlt r vals = Ok (f va vb).
  Proof.
    intros T f HT a b r vals Ha Hb Ca Cb Or Hin C.
    destruct (result_sublists a b r Ha Hb Or Hin) as [Sa [Sb ND]].
    eexists. eexists. split; [apply meval_spec; assumption|]. split; [apply meval_spec; assumption|].
    rewrite meval_spec by (try assumption; eapply covers_union; eassumption). f_equal.
    rewrite (evalL_peq _ _ _ (denotes_peq _ _ (proj2 (proj2 Or)) C)).
    rewrite HT by (rewrite rho_of_length; apply lift_lengths).
    rewrite !evalL_lift by (try assumption; apply poly_ok_lengths; assumption). reflexivity.
  Qed.

  (* evaluation commutes with add_mpoly, for all pairs of generator sets *)
  Theorem madd_eval : forall a b vals, poly_ok vlt a -> poly_ok vlt b ->
    covers vals (pvars a) -> covers vals (pvars b) ->
    exists r va vb, madd vlt veqb a b = Ok r /\ meval vlt a vals = Ok va /\ meval vlt b vals = Ok vb /\
      meval vlt r vals = Ok (va + vb).
  Proof.
    intros a b vals Ha Hb Ca Cb.
    destruct (madd_spec vlt veqb laws a b Ha Hb) as [r [E [Or [Hin C]]]].
    destruct (mbinop_eval t_add Z.add (fun A B rho _ _ => evalL_app A B rho) a b r vals) as [va [vb H]];
      try assumption.
    exists r, va, vb. split; assumption.
  Qed.

  (* evaluation commutes with mul_mpoly when no exponent of the product reaches 2^32 *)
  Theorem mmul_eval : forall a b vals, poly_ok vlt a -> poly_ok vlt b ->
    covers vals (pvars a) -> covers vals (pvars b) ->
    (tmax (cdict (pcont a)) + tmax (cdict (pcont b)) < W32)%N ->
    exists r va vb, mmul vlt veqb a b = Ok r /\ meval vlt a vals = Ok va /\ meval vlt b vals = Ok vb /\
      meval vlt r vals = Ok (va * vb).
  Proof.
    intros a b vals Ha Hb Ca Cb G.
    destruct (mmul_spec_guarded vlt veqb laws a b Ha Hb G) as [r [E [Or [Hin C]]]].
    destruct (mbinop_eval (t_mul N.add) Z.mul evalL_t_mul a b r vals) as [va [vb H]]; try assumption.
    exists r, va, vb. split; assumption.
  Qed.

  (* evaluation commutes with pow_mpoly when no exponent of the power reaches 2^32 *)
  Theorem mpow_eval : forall (a : mpoly V) n vals, poly_ok vlt a -> covers vals (pvars a) ->
    (n * tmax (cdict (pcont a)) < W32)%N ->
    exists r va, mpow (pow_fuel n) a n = Ok r /\ meval vlt a vals = Ok va /\
      meval vlt r vals = Ok (va ^ Z.of_N n).
  Proof.
    intros a n vals Ha Hc G.
    destruct (mpow_spec_guarded vlt a n Ha G) as [r [E [Or [Ev C]]]].
    exists r. eexists. split; [exact E|]. split; [apply meval_spec; assumption|].
    rewrite meval_spec by (try assumption; rewrite Ev; assumption). f_equal. rewrite Ev.
    rewrite (evalL_peq _ (t_pow N.add (length (pvars a)) (cdict (pcont a)) (N.to_nat n))).
    - replace (length (pvars a)) with (length (rho_of vals (pvars a))) by (apply rho_of_length).
      rewrite evalL_t_pow.
      + rewrite N_nat_Z. reflexivity.
      + rewrite rho_of_length. apply poly_ok_lengths. assumption.
    - intros m. rewrite <- coeff_coeffL by (apply Or). apply C.
  Qed.
End Eval.
