(* C22 obligation: reconcile returns the sorted union of the two generator sets, its size, and the
   two translators = the positions of the elements of s1 / s2 in the union.  For ALL pairs of sets
   (equal, overlapping, disjoint, empty). *)
From SE Require Import C22.MPolySpec C22.MPolyMain.
Local Open Scope Z_scope.
Theorem C22_reconcile_spec :
  forall (V : Type) (vlt veqb : V -> V -> bool), order_laws vlt veqb ->
  forall s1 s2 : list V, sorted vlt s1 -> sorted vlt s2 ->
    let '(v1, v2, s, sz) := reconcile vlt veqb s1 s2 in
    sorted vlt s /\ (forall y, In y s <-> In y s1 \/ In y s2) /\
    v1 = map (index_in veqb s) s1 /\ v2 = map (index_in veqb s) s2 /\ sz = len s /\
    (forall x, In x s -> nth_error s (N.to_nat (index_in veqb s x)) = Some x).
Proof. exact @reconcile_spec_main. Qed.
Print Assumptions C22_reconcile_spec.
