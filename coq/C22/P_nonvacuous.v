(* C22: the hypotheses of the theorems are satisfiable by non-trivial inputs, and the model computes
   the expected results on them (everything here is evaluated by vm_compute). *)
From SE Require Import C22.MPolySpec.
From Coq Require Import Sorted.
Local Open Scope Z_scope.

Definition vx : sym := [120%N].   (* "x" *)
Definition vy : sym := [121%N].   (* "y" *)
Definition vz : sym := [122%N].   (* "z" *)
Definition vaa : sym := [97%N; 97%N].   (* "aa" *)

(* 3*x - 10*y**2 over {x, y};   5*y*z + 10*y**2 - 7 over {y, z}: overlapping generator sets *)
Definition pa : spoly := mkPoly [vx; vy] (mkCont [([1%N; 0%N], 3); ([0%N; 2%N], -10)] 2).
Definition pb : spoly := mkPoly [vy; vz] (mkCont [([1%N; 1%N], 5); ([2%N; 0%N], 10); ([0%N; 0%N], -7)] 2).
(* pa with its buckets in the other order *)
Definition pa' : spoly := mkPoly [vx; vy] (mkCont [([0%N; 2%N], -10); ([1%N; 0%N], 3)] 2).

Ltac ok_tac :=
  unfold poly_ok, sorted, cont_ok, dict_ok, key_ok; cbn [pvars pcont cdict csize map fst snd];
  repeat match goal with
         | |- _ /\ _ => split
         | |- StronglySorted _ _ => constructor
         | |- Forall _ _ => constructor
         | |- NoDup _ => constructor
         | |- ~ In _ _ => cbn [In]; intuition discriminate
         | |- _ <> _ => discriminate
         | |- _ = _ => reflexivity
         | |- (_ < _)%N => reflexivity
         end.

Example pa_ok : poly_ok sym_lt pa.
Proof. unfold pa. ok_tac. Qed.
Example pb_ok : poly_ok sym_lt pb.
Proof. unfold pb. ok_tac. Qed.
Example pa'_ok : poly_ok sym_lt pa'.
Proof. unfold pa'. ok_tac. Qed.

(* the set order is the hash order, not the alphabetical one: "x" < "aa" *)
Example order_is_by_hash : sym_lt vx vaa = true /\ sym_lt vaa vx = false.
Proof. vm_compute. split; reflexivity. Qed.

Example reconcile_overlap :
  s_reconcile [vx; vy] [vy; vz] = ([0%N; 1%N], [1%N; 2%N], [vx; vy; vz], 3%N).
Proof. vm_compute. reflexivity. Qed.

Example add_overlap :
  s_add pa pb = Ok (mkPoly [vx; vy; vz]
                      (mkCont [([0%N; 1%N; 1%N], 5); ([0%N; 0%N; 0%N], -7); ([1%N; 0%N; 0%N], 3)] 3)).
Proof. vm_compute. reflexivity. Qed.

Example guard_holds : (tmax (cdict (pcont pa)) + tmax (cdict (pcont pb)) < W32)%N.
Proof. reflexivity. Qed.

Example mul_overlap : exists r, s_mul pa pb = Ok r /\ pvars r = [vx; vy; vz] /\ length (cdict (pcont r)) = 6%nat.
Proof. eexists. split; [vm_compute; reflexivity|]. split; reflexivity. Qed.

Example pow_zero : s_pow pa 0 = Ok (mkPoly [vx; vy] (mkCont [([0%N; 0%N], 1)] 2)).
Proof. vm_compute. reflexivity. Qed.
Example pow_three : exists r, s_pow pa 3 = Ok r /\ length (cdict (pcont r)) = 4%nat.
Proof. eexists. split; [vm_compute; reflexivity|reflexivity]. Qed.
Example pow_guard_holds : (3 * tmax (cdict (pcont pa)) < W32)%N.
Proof. reflexivity. Qed.

Example covers_holds : covers sym_lt [(vz, 5); (vx, 2); (vy, -3)] (pvars pa).
Proof. repeat constructor; vm_compute; discriminate. Qed.
Example eval_value : s_eval pa [(vz, 5); (vx, 2); (vy, -3)] = Ok (-84).
Proof. vm_compute. reflexivity. Qed.

Example eq_bucket_order : s_eq pa pa' = true /\ s_hash pa = s_hash pa'.
Proof. vm_compute. split; reflexivity. Qed.
Example eq_constants_over_different_generators :
  s_eq (mkPoly [vx] (mkCont [([0%N], 3)] 1)) (mkPoly [vy; vz] (mkCont [([0%N; 0%N], 3)] 2)) = true /\
  s_eq (mkPoly [vx] (mkCont [([1%N], 3)] 1)) (mkPoly [vx] (mkCont [([0%N], 3)] 1)) = false.
Proof. vm_compute. split; reflexivity. Qed.
