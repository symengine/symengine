(* C22 obligation: translating a well-formed container with the translator computed by reconcile
   never leaves a vector (no ErrOOB), gives a well-formed container over the union, and denotes
   the same polynomial: every term keeps its coefficient and every generator its exponent. *)
From SE Require Import C22.MPolySpec C22.MPolyMain.
Local Open Scope Z_scope.
Theorem C22_translate_preserves_value :
  forall (V : Type) (vlt veqb : V -> V -> bool), order_laws vlt veqb ->
  forall (s1 s2 : list V) (a : cont), sorted vlt s1 -> sorted vlt s2 ->
    cont_ok a -> csize a = len s1 ->
    let '(v1, v2, s, sz) := reconcile vlt veqb s1 s2 in
    exists r, ctranslate a v1 sz = Ok r /\ cont_ok r /\ csize r = len s /\
      (forall m, coeff (cdict r) m = coeffL (lift veqb s s1 (cdict a)) m) /\
      (forall k u, In u s -> expo veqb s (embed veqb s s1 k) u = expo veqb s1 k u).
Proof. exact @translate_preserves_value. Qed.
Print Assumptions C22_translate_preserves_value.
