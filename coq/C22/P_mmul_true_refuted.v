(* C22 obligation (refutation): without the guard the product is not the mathematical one:
   x**(2**31) * x**(2**31) = 1 in the model -- replayed on the library as
   `mul x/2147483648:1 x/2147483648:1` (known finding C22/exponent-wraps-u32). *)
From SE Require Import C22.MPolySpec C22.MPolyMain.
Local Open Scope Z_scope.
Theorem C22_mmul_true_refuted :
  exists a b r : spoly, poly_ok sym_lt a /\ poly_ok sym_lt b /\ s_mul a b = Ok r /\
    exists m, coeff (cdict (pcont r)) m <>
              coeffL (t_mul N.add (lift sym_eqb (pvars r) (pvars a) (cdict (pcont a)))
                                  (lift sym_eqb (pvars r) (pvars b) (cdict (pcont b)))) m.
Proof. exact mmul_true_refuted. Qed.
Print Assumptions C22_mmul_true_refuted.
