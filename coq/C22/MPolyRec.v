(* C22 -- reconcile (union of two generator sets + the two index translators) and translate.
   A generator list L is embedded in a list U when both are duplicate-free and L is included in U,
   in any order; the translator is then [map (index_in U) L], and translating a dictionary with it
   gives the same polynomial written over U.  reconcile produces such translators for both operands
   (there L is even a sublist of U); from_dict produces one for a permutation. *)
From SE Require Import C22.MPolySpec C22.MPolyDict.
From Coq Require Import Lia Permutation.
Local Open Scope N_scope.

Lemma NoDup_map_inj_in : forall {A B} (f : A -> B) l,
  (forall x y, In x l -> In y l -> f x = f y -> x = y) -> NoDup l -> NoDup (map f l).
Proof.
  induction l as [|a l IH]; intros Hinj ND; simpl; [constructor|].
  apply NoDup_cons_iff in ND as [Hn ND]. constructor.
  - intros H. apply in_map_iff in H as [y [E Hy]]. apply Hn.
    assert (y = a) by (apply Hinj; [right; assumption|left; reflexivity|assumption]). subst. assumption.
  - apply IH; [|assumption]. intros x y Hx Hy. apply Hinj; right; assumption.
Qed.

Lemma len_cons : forall {A} (x : A) l, len (x :: l) = len l + 1.
Proof. intros. unfold len. cbn [length]. lia. Qed.

Section Rec.
  Context {V : Type}.
  Variable vlt : V -> V -> bool.
  Variable veqb : V -> V -> bool.
  Hypothesis laws : order_laws vlt veqb.

  Let irrefl := ol_irrefl vlt veqb laws.
  Let trans := ol_trans vlt veqb laws.
  Let total := ol_total vlt veqb laws.
  Let eqb_eq := ol_eqb vlt veqb laws.

  Lemma veqb_spec : forall a b, reflect (a = b) (veqb a b).
  Proof using laws. intros a b. apply iff_reflect. symmetry. apply eqb_eq. Qed.
  Lemma veqb_refl : forall a, veqb a a = true.
  Proof using laws. intros a. apply eqb_eq. reflexivity. Qed.
  Lemma veqb_neq : forall a b, a <> b -> veqb a b = false.
  Proof using laws. intros a b H. destruct (veqb_spec a b); [contradiction|reflexivity]. Qed.

  Notation sorted := (sorted vlt).

  Lemma sorted_cons_inv : forall a l, sorted (a :: l) -> sorted l /\ Forall (fun b => vlt a b = true) l.
  Proof. intros a l H. inversion H; subst. split; assumption. Qed.
  Lemma sorted_cons : forall a l, sorted l -> Forall (fun b => vlt a b = true) l -> sorted (a :: l).
  Proof. intros. constructor; assumption. Qed.

  Lemma sorted_NoDup : forall l, sorted l -> NoDup l.
  Proof using laws.
    induction l as [|a l IH]; intros H; [constructor|].
    apply sorted_cons_inv in H as [H1 H2]. constructor; [|apply IH; assumption].
    intros Hin. rewrite Forall_forall in H2. specialize (H2 _ Hin). rewrite irrefl in H2. discriminate.
  Qed.

  Lemma set_insert_in : forall s x y, In y (set_insert vlt x s) <-> y = x \/ In y s.
  Proof.
    assert (flip : forall (a b : V) P, a = b \/ P <-> b = a \/ P)
      by (intros a b P; split; (intros [H|H]; [left; symmetry; exact H|right; exact H])).
    induction s as [|z s IH]; intros x y; simpl; [apply flip|].
    destruct (vlt z x) eqn:E1; [simpl; rewrite IH; tauto|].
    destruct (vlt x z) eqn:E2; [apply flip|].
    assert (x = z) by (apply total; assumption). subst z. rewrite (flip y x). simpl. tauto.
  Qed.

  Lemma set_insert_sorted : forall s x, sorted s -> sorted (set_insert vlt x s).
  Proof.
    induction s as [|z s IH]; intros x H; simpl.
    - apply sorted_cons; constructor.
    - apply sorted_cons_inv in H as [H1 H2].
      destruct (vlt z x) eqn:E1.
      + apply sorted_cons; [apply IH; assumption|].
        apply Forall_forall. intros y Hy. apply set_insert_in in Hy as [->|Hy]; [assumption|].
        rewrite Forall_forall in H2. apply H2. assumption.
      + destruct (vlt x z) eqn:E2.
        * apply sorted_cons; [apply sorted_cons; assumption|].
          constructor; [assumption|]. apply Forall_forall. intros y Hy.
          rewrite Forall_forall in H2. eapply trans; [eassumption|apply H2; assumption].
        * apply sorted_cons; assumption.
  Qed.

  Lemma set_union_spec : forall s2 s1, sorted s1 ->
    sorted (set_union vlt s1 s2) /\ forall y, In y (set_union vlt s1 s2) <-> In y s1 \/ In y s2.
  Proof using laws.
    unfold set_union. induction s2 as [|x s2 IH]; intros s1 H; simpl.
    - split; [assumption|]. intros y. tauto.
    - destruct (IH (set_insert vlt x s1)) as [H1 H2]; [apply set_insert_sorted; assumption|].
      split; [assumption|]. intros y. rewrite H2, set_insert_in. split.
      + intros [[->|K]|K]; [right; left; reflexivity|left; exact K|right; right; exact K].
      + intros [K|[<-|K]]; [left; right; exact K|left; left; reflexivity|right; exact K].
  Qed.

  Inductive sublist : list V -> list V -> Prop :=
  | sl_nil : forall l, sublist [] l
  | sl_cons : forall x l1 l2, sublist l1 l2 -> sublist (x :: l1) (x :: l2)
  | sl_skip : forall x l1 l2, sublist l1 l2 -> sublist l1 (x :: l2).

  Lemma sublist_incl : forall l1 l2, sublist l1 l2 -> incl l1 l2.
  Proof.
    induction 1; intros y Hy.
    - destruct Hy.
    - destruct Hy as [->|Hy]; [left; reflexivity|right; apply IHsublist; assumption].
    - right. apply IHsublist. assumption.
  Qed.
  Lemma sublist_refl : forall l, sublist l l.
  Proof. induction l; constructor; assumption. Qed.
  Lemma sublist_length : forall l1 l2, sublist l1 l2 -> (length l1 <= length l2)%nat.
  Proof using laws. induction 1; simpl; lia. Qed.

  Lemma sorted_incl_sublist : forall l2 l1, sorted l1 -> sorted l2 -> incl l1 l2 -> sublist l1 l2.
  Proof using laws.
    induction l2 as [|y r IH]; intros l1 H1 H2 Hi.
    - destruct l1 as [|x l1]; [constructor|]. exfalso. apply (Hi x). left. reflexivity.
    - destruct l1 as [|x l1']; [constructor|].
      apply sorted_cons_inv in H1 as [H1a H1b]. apply sorted_cons_inv in H2 as [H2a H2b].
      rewrite Forall_forall in H1b, H2b.
      assert (Hx : In x (y :: r)) by (apply Hi; left; reflexivity).
      destruct Hx as [Hx|Hx].
      + subst y. apply sl_cons. apply IH; [assumption|assumption|].
        intros z Hz. assert (Hz' : In z (x :: r)) by (apply Hi; right; assumption).
        destruct Hz' as [Hz'|Hz']; [|assumption].
        subst z. specialize (H1b _ Hz). rewrite irrefl in H1b. discriminate.
      + apply sl_skip. apply IH; [apply sorted_cons; [assumption|apply Forall_forall; assumption]|assumption|].
        assert (Hyx : vlt y x = true) by (apply H2b; assumption).
        intros z Hz. assert (Hz' : In z (y :: r)) by (apply Hi; assumption).
        destruct Hz' as [Hz'|Hz']; [|assumption]. subst z. exfalso.
        destruct Hz as [Hz|Hz].
        * subst x. rewrite irrefl in Hyx. discriminate.
        * specialize (H1b _ Hz). assert (vlt y y = true) by (eapply trans; eassumption).
          rewrite irrefl in H. discriminate.
  Qed.

  (* the two shapes of a sublist of it :: s' when it does not occur in s' *)
  Lemma sublist_head_cases : forall it s' i, sublist i (it :: s') -> ~ In it s' ->
    (exists i', i = it :: i' /\ sublist i' s' /\ ~ In it i') \/ (sublist i s' /\ ~ In it i).
  Proof.
    intros it s' i H Hn. inversion H; subst.
    - right. split; [constructor|]. intros [].
    - left. exists l1. split; [reflexivity|]. split; [assumption|].
      intros Hin. apply Hn. eapply sublist_incl; eassumption.
    - right. split; [assumption|]. intros Hin. apply Hn. eapply sublist_incl; eassumption.
  Qed.

  Lemma expo_notin : forall S k u, ~ In u S -> expo veqb S k u = 0.
  Proof using laws.
    induction S as [|s S IH]; intros k u H; simpl; [reflexivity|].
    destruct k as [|e k]; [reflexivity|].
    rewrite veqb_neq by (intros E; apply H; left; assumption). apply IH. intros K. apply H. right. assumption.
  Qed.
  Lemma expo_head : forall s S e k, expo veqb (s :: S) (e :: k) s = e.
  Proof using laws. intros. simpl. rewrite veqb_refl. reflexivity. Qed.
  Lemma expo_tail : forall s S e k u, u <> s -> expo veqb (s :: S) (e :: k) u = expo veqb S k u.
  Proof using laws. intros. simpl. rewrite veqb_neq by congruence. reflexivity. Qed.
  Lemma expo_bound : forall S k u, Forall (fun e => e < W32) k -> expo veqb S k u < W32.
  Proof.
    induction S as [|s S IH]; intros k u H; simpl; [reflexivity|].
    destruct k as [|e k]; [reflexivity|]. apply Forall_cons_iff in H as [H1 H2].
    destruct (veqb s u); [assumption|apply IH; assumption].
  Qed.

  (* [expo] reads an exponent by generator: on a vector built generator by generator it returns
     that generator's entry, and reading a monomial at its own generators returns the monomial *)
  Lemma expo_map : forall U (f : V -> N) u, In u U -> expo veqb U (map f U) u = f u.
  Proof.
    induction U as [|x U IH]; intros f u H; [destruct H|]. cbn [map].
    destruct (veqb_spec x u) as [->|E]; [apply expo_head|].
    rewrite expo_tail by congruence. destruct H as [H|H]; [contradiction|]. apply IH. assumption.
  Qed.
  Lemma expo_self : forall L k, NoDup L -> length k = length L -> map (expo veqb L k) L = k.
  Proof.
    induction L as [|x L IH]; intros k ND Lk; destruct k as [|e k]; try discriminate; [reflexivity|].
    apply NoDup_cons_iff in ND as [Hn ND]. cbn [map]. rewrite expo_head. f_equal.
    transitivity (map (expo veqb L k) L); [|apply IH; [assumption|cbn in Lk; lia]].
    apply map_ext_in. intros u Hu. apply expo_tail. intros ->. contradiction.
  Qed.

  Lemma embed_length : forall U S k, length (embed veqb U S k) = length U.
  Proof. intros. unfold embed. apply map_length. Qed.
  Lemma embed_key_ok : forall U S k, Forall (fun e => e < W32) k -> key_ok (length U) (embed veqb U S k).
  Proof.
    intros U S k H. split; [apply embed_length|]. unfold embed. rewrite Forall_map.
    apply Forall_forall. intros u _. apply expo_bound. assumption.
  Qed.
  Lemma expo_embed : forall U S k u, In u U -> expo veqb U (embed veqb U S k) u = expo veqb S k u.
  Proof using laws. intros. unfold embed. apply expo_map. assumption. Qed.

  (* so a monomial over L can be read back from its embedding *)
  Lemma embed_inj : forall U L, NoDup L -> incl L U -> forall k k',
    length k = length L -> length k' = length L -> embed veqb U L k = embed veqb U L k' -> k = k'.
  Proof.
    intros U L ND HI k k' Lk Lk' E. rewrite <- (expo_self L k), <- (expo_self L k') by assumption.
    apply map_ext_in. intros u Hu. rewrite <- !(expo_embed U L _ u) by (apply HI; assumption).
    rewrite E. reflexivity.
  Qed.

  Lemma lift_keys : forall U S d, map fst (lift veqb U S d) = map (embed veqb U S) (map fst d).
  Proof. intros. unfold lift. rewrite !map_map. reflexivity. Qed.
  Lemma lift_keys_ok : forall U S n d, keys_ok n d -> keys_ok (length U) (lift veqb U S d).
  Proof.
    intros U S n d H. unfold lift. rewrite Forall_map. eapply Forall_impl; [|exact H].
    intros p [_ B]. apply embed_key_ok. exact B.
  Qed.
  Lemma lift_NoDup : forall U L d, NoDup L -> incl L U -> keys_ok (length L) d ->
    NoDup (map fst d) -> NoDup (map fst (lift veqb U L d)).
  Proof.
    intros U L d ND HI HK NDd. rewrite lift_keys. apply NoDup_map_inj_in; [|assumption].
    rewrite <- Forall_map, Forall_forall in HK.
    intros x y Hx Hy. apply (embed_inj U L ND HI); [apply (HK x Hx)|apply (HK y Hy)].
  Qed.

  Lemma index_in_head : forall it s', index_in veqb (it :: s') it = 0.
  Proof using laws. intros. simpl. rewrite veqb_refl. reflexivity. Qed.
  Lemma index_in_tail : forall it s' x, x <> it -> index_in veqb (it :: s') x = 1 + index_in veqb s' x.
  Proof using laws. intros. simpl. rewrite veqb_neq by congruence. reflexivity. Qed.

  Definition positions (pos : N) (s i : list V) : list N := map (fun x => pos + index_in veqb s x) i.

  Lemma positions_0 : forall s i, positions 0 s i = map (index_in veqb s) i.
  Proof. reflexivity. Qed.

  Lemma positions_shift : forall pos it s' i, ~ In it i ->
    positions pos (it :: s') i = positions (pos + 1) s' i.
  Proof.
    intros pos it s' i Hn. unfold positions. apply map_ext_in. intros x Hx.
    rewrite index_in_tail by (intros E; subst; contradiction). lia.
  Qed.

  Lemma positions_cons_head : forall pos it s' i', ~ In it i' ->
    positions pos (it :: s') (it :: i') = pos :: positions (pos + 1) s' i'.
  Proof.
    intros pos it s' i' Hn. change (positions pos (it :: s') (it :: i'))
      with (pos + index_in veqb (it :: s') it :: positions pos (it :: s') i').
    rewrite index_in_head, positions_shift by assumption. f_equal. lia.
  Qed.

  (* One round of the loop, seen from one operand: does the operand's next generator equal the
     current element [it] of the union?  If so its position is emitted and the operand advances. *)
  Definition at_head (it : V) (i : list V) : bool :=
    match i with x :: _ => veqb it x | [] => false end.

  Lemma rec_loop_cons : forall it s' i j pos,
    rec_loop veqb (it :: s') i j pos =
    let '(v1, v2, sz) := rec_loop veqb s' (if at_head it i then tl i else i)
                                          (if at_head it j then tl j else j) (pos + 1) in
    (if at_head it i then pos :: v1 else v1, if at_head it j then pos :: v2 else v2, sz).
  Proof. reflexivity. Qed.

  Lemma positions_step : forall pos it s' i, sublist i (it :: s') -> ~ In it s' ->
    sublist (if at_head it i then tl i else i) s' /\
    positions pos (it :: s') i =
      if at_head it i then pos :: positions (pos + 1) s' (tl i) else positions (pos + 1) s' i.
  Proof.
    intros pos it s' i Hi Hn.
    destruct (sublist_head_cases it s' i Hi Hn) as [[i' [-> [Hi' Hni]]]|[Hi' Hni]].
    - cbn [at_head tl]. rewrite veqb_refl. split; [assumption|apply positions_cons_head; assumption].
    - assert (E : at_head it i = false).
      { destruct i as [|x i0]; [reflexivity|]. apply veqb_neq. intros ->. apply Hni. left. reflexivity. }
      rewrite E. split; [assumption|apply positions_shift; assumption].
  Qed.

  Lemma rec_loop_spec : forall s i j pos, NoDup s -> sublist i s -> sublist j s ->
    rec_loop veqb s i j pos = (positions pos s i, positions pos s j, pos + len s).
  Proof.
    induction s as [|it s' IH]; intros i j pos ND Hi Hj.
    - inversion Hi; subst. inversion Hj; subst. cbn. rewrite N.add_0_r. reflexivity.
    - apply NoDup_cons_iff in ND as [Hn ND].
      destruct (positions_step pos it s' i Hi Hn) as [Hi' ->].
      destruct (positions_step pos it s' j Hj Hn) as [Hj' ->].
      rewrite rec_loop_cons, (IH _ _ (pos + 1) ND Hi' Hj'), len_cons, (N.add_comm (len s')), N.add_assoc.
      destruct (at_head it i), (at_head it j); reflexivity.
  Qed.

  (* reconcile: the output set is the sorted union; the translators are the positions of the
     elements of s1 / s2 in it; the returned size is its size *)
  Theorem reconcile_spec : forall s1 s2, sorted s1 -> sorted s2 ->
    let '(v1, v2, s, sz) := reconcile vlt veqb s1 s2 in
    sorted s /\ (forall y, In y s <-> In y s1 \/ In y s2) /\
    sublist s1 s /\ sublist s2 s /\
    v1 = positions 0 s s1 /\ v2 = positions 0 s s2 /\ sz = len s.
  Proof using laws.
    intros s1 s2 H1 H2. unfold reconcile.
    destruct (set_union_spec s2 s1 H1) as [Hs Hin].
    set (s := set_union vlt s1 s2) in *.
    assert (Hs1 : sublist s1 s) by (apply sorted_incl_sublist; [assumption|assumption|intros y Hy; apply Hin; left; assumption]).
    assert (Hs2 : sublist s2 s) by (apply sorted_incl_sublist; [assumption|assumption|intros y Hy; apply Hin; right; assumption]).
    rewrite (rec_loop_spec s s1 s2 0 (sorted_NoDup s Hs) Hs1 Hs2).
    repeat split; try assumption; try (apply Hin); try reflexivity.
  Qed.

  Fixpoint inb (u : V) (l : list V) : bool :=
    match l with [] => false | x :: r => veqb x u || inb u r end.
  Lemma inb_In : forall u l, inb u l = true <-> In u l.
  Proof.
    induction l as [|x r IH]; cbn [inb In]; [split; [discriminate|tauto]|].
    rewrite orb_true_iff, IH, eqb_eq. tauto.
  Qed.
  Lemma inb_false : forall u l, ~ In u l -> inb u l = false.
  Proof. intros u l H. destruct (inb u l) eqn:E; [|reflexivity]. apply inb_In in E. contradiction. Qed.

  (* one checked store, at the position of a generator *)
  Lemma set_at_index : forall (f : V -> N) U x e, In x U -> NoDup U ->
    set_at (map f U) (N.to_nat (index_in veqb U x)) e = Some (map (fun u => if veqb x u then e else f u) U).
  Proof.
    induction U as [|y U IH]; intros x e Hin ND; [destruct Hin|].
    apply NoDup_cons_iff in ND as [Hn ND]. cbn [map].
    destruct (veqb_spec x y) as [->|E].
    - rewrite index_in_head. cbn [N.to_nat set_at]. f_equal. f_equal.
      apply map_ext_in. intros u Hu. rewrite veqb_neq; [reflexivity|]. intros ->. contradiction.
    - destruct Hin as [Hin|Hin]; [congruence|]. rewrite index_in_tail by assumption.
      replace (N.to_nat (1 + index_in veqb U x)) with (S (N.to_nat (index_in veqb U x))) by lia.
      cbn [set_at]. rewrite (IH x e Hin ND). reflexivity.
  Qed.

  (* the loop of translate over one key stores the exponent of every generator of L at that
     generator's position in U, and leaves the other positions as they were *)
  Lemma scatter_spec : forall U, NoDup U -> forall L k (base : V -> N) p0 ltr lk,
    NoDup L -> incl L U -> length k = length L ->
    trans_key (length L) p0 (map (index_in veqb U) L) k (map base U) ltr lk
    = Ok (map (fun u => if inb u L then expo veqb L k u else base u) U).
  Proof.
    intros U NDU. induction L as [|x L IH]; intros k base p0 ltr lk NDL Hincl Lk; [reflexivity|].
    destruct k as [|e k]; [discriminate|]. apply NoDup_cons_iff in NDL as [Hn NDL].
    cbn [length map trans_key]. unfold set_chk.
    rewrite (set_at_index base U x e (Hincl x (or_introl eq_refl)) NDU). cbn [bind].
    rewrite (IH k (fun u => if veqb x u then e else base u) (p0 + 1) ltr lk NDL)
      by (try (intros y Hy; apply Hincl; right; assumption); cbn in Lk; lia).
    f_equal. apply map_ext. intros u. cbn [inb expo].
    destruct (veqb_spec x u) as [<-|E]; [rewrite (inb_false x L Hn)|]; reflexivity.
  Qed.

  Lemma zeros_map : forall (U : list V), zeros (len U) = map (fun _ => 0) U.
  Proof.
    intros U. unfold zeros. rewrite len_length.
    induction U as [|a U IH]; cbn [map length repeat]; [reflexivity|]. rewrite IH. reflexivity.
  Qed.

  (* translate_preserves_value, for one key: the translated exponent vector is the same monomial
     written over U (every generator keeps its exponent, the other generators get 0) *)
  Corollary scatter_embed : forall U L k p0 ltr lk, NoDup U -> NoDup L -> incl L U -> length k = length L ->
    trans_key (length L) p0 (map (index_in veqb U) L) k (zeros (len U)) ltr lk = Ok (embed veqb U L k).
  Proof using laws.
    intros U L k p0 ltr lk NDU NDL Hincl Lk.
    rewrite zeros_map, (scatter_spec U NDU L k (fun _ => 0) p0 ltr lk NDL Hincl Lk). f_equal.
    apply map_ext. intros u. destruct (inb u L) eqn:E; [reflexivity|].
    symmetry. apply expo_notin. intros K. apply inb_In in K. congruence.
  Qed.

  Lemma dinsert_fresh : forall k c d, ~ In k (map fst d) -> dinsert k c d = (k, c) :: d.
  Proof. intros k c d H. unfold dinsert. apply dfind_none_notin in H. rewrite H. reflexivity. Qed.

  (* as long as the translated keys are new, translate conses them one by one *)
  Lemma trans_all_eq : forall U L, NoDup U -> NoDup L -> incl L U ->
    forall d acc, Forall (fun p => length (fst p) = length L) d ->
    NoDup (map fst (lift veqb U L d) ++ map fst acc) ->
    trans_all (len L) (map (index_in veqb U) L) (len U) d acc = Ok (rev (lift veqb U L d) ++ acc).
  Proof.
    intros U L NDU NDL HI. induction d as [|[k c] d IH]; intros acc HL HND; [reflexivity|].
    apply Forall_cons_iff in HL as [Lk HL]. cbn [fst] in Lk.
    cbn [trans_all]. rewrite len_length, (scatter_embed U L k 0 _ _ NDU NDL HI Lk). cbn [bind].
    unfold lift in *. cbn [map fst snd app rev] in *. apply NoDup_cons_iff in HND as [Hnew HND].
    rewrite dinsert_fresh by (intros K; apply Hnew, in_or_app; right; exact K).
    rewrite IH, <- app_assoc; [reflexivity|assumption|].
    cbn [map fst]. eapply Permutation_NoDup; [apply Permutation_middle|]. constructor; assumption.
  Qed.

  (* translate: the result is well-formed over U and denotes the lifted polynomial *)
  Theorem ctranslate_spec : forall U L a, NoDup U -> NoDup L -> incl L U ->
    cont_ok a -> csize a = len L ->
    exists r, ctranslate a (map (index_in veqb U) L) (len U) = Ok r /\
      cont_ok r /\ csize r = len U /\ denotes r (lift veqb U L (cdict a)).
  Proof using laws.
    intros U L a NDU NDL HI Oa Ea.
    assert (Ka : keys_ok (length L) (cdict a)) by (rewrite <- len_length, <- Ea; apply cont_ok_keys; assumption).
    pose proof (lift_NoDup U L (cdict a) NDL HI Ka (dict_ok_keys _ _ Oa)) as NDl.
    unfold ctranslate. rewrite Ea, trans_all_eq; try assumption.
    - cbn [bind]. rewrite app_nil_r. eexists. split; [reflexivity|]. unfold cont_of_dict.
      assert (NDr : NoDup (map fst (rev (lift veqb U L (cdict a))))) by (rewrite map_rev; apply NoDup_rev; assumption).
      split; [|split; [reflexivity|]].
      + unfold cont_ok. cbn [cdict csize]. rewrite len_length. apply dict_ok_dnz; [assumption|].
        apply Forall_rev. apply (lift_keys_ok U L _ _ Ka).
      + intros m. cbn [cdict]. rewrite coeff_dnz, coeff_coeffL by assumption. apply coeffL_rev.
    - apply keys_ok_lens. assumption.
    - cbn [map]. rewrite app_nil_r. assumption.
  Qed.
End Rec.
