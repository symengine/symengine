(* C22 -- exponent vectors and the algebra of schoolbook products and powers of formal sums (with the
   exponent addition of the code, modulo 2^32, and when it agrees with the mathematical one), then
   the containers' multiplication (UDictWrapper::mul, operator*=) and power (UDictWrapper::pow). *)
From SE Require Import C22.MPolySpec C22.MPolyDict.
From Coq Require Import Lia.
Local Open Scope Z_scope.

Lemma uadd_lt : forall x y, (uadd x y < W32)%N.
Proof. intros. unfold uadd. apply N.mod_lt. discriminate. Qed.
Lemma uadd_0_r : forall x, (x < W32)%N -> uadd x 0 = x.
Proof. intros x H. unfold uadd. rewrite N.add_0_r. apply N.mod_small. assumption. Qed.
Lemma uadd_0_l : forall x, (x < W32)%N -> uadd 0 x = x.
Proof. intros x H. unfold uadd. rewrite N.add_0_l. apply N.mod_small. assumption. Qed.
Lemma uadd_assoc : forall a b c, uadd (uadd a b) c = uadd a (uadd b c).
Proof.
  intros. unfold uadd. rewrite N.add_mod_idemp_l by discriminate. rewrite N.add_mod_idemp_r by discriminate.
  rewrite N.add_assoc. reflexivity.
Qed.
Lemma uadd_comm : forall a b, uadd a b = uadd b a.
Proof. intros. unfold uadd. rewrite N.add_comm. reflexivity. Qed.

Lemma kadd_w_assoc : forall a b c, kadd_w (kadd_w a b) c = kadd_w a (kadd_w b c).
Proof.
  unfold kadd_w. induction a as [|x a IH]; intros b c; [reflexivity|].
  destruct b as [|y b]; [reflexivity|]. destruct c as [|z c]; [reflexivity|].
  simpl. rewrite uadd_assoc, IH. reflexivity.
Qed.
Lemma kadd_w_comm : forall a b, kadd_w a b = kadd_w b a.
Proof.
  unfold kadd_w. induction a as [|x a IH]; intros b; destruct b as [|y b]; try reflexivity.
  simpl. rewrite uadd_comm, IH. reflexivity.
Qed.
Lemma kadd_w_zeros_r : forall n k, key_ok n k -> kadd_w k (repeat 0%N n) = k.
Proof.
  unfold kadd_w. intros n k [L B]. subst n. induction k as [|x k IH]; [reflexivity|].
  inversion B; subst. simpl. rewrite uadd_0_r by assumption. rewrite IH by assumption. reflexivity.
Qed.
Lemma kadd_w_zeros_l : forall n k, key_ok n k -> kadd_w (repeat 0%N n) k = k.
Proof. intros. rewrite kadd_w_comm. apply kadd_w_zeros_r. assumption. Qed.
Lemma kadd_w_ok : forall n a b, length a = n -> length b = n -> key_ok n (kadd_w a b).
Proof.
  unfold kadd_w. intros n a. revert n. induction a as [|x a IH]; intros n b La Lb.
  - simpl in *. subst. split; [reflexivity|constructor].
  - destruct b as [|y b]; [simpl in *; lia|]. simpl in *. destruct n as [|n]; [lia|].
    destruct (IH n b) as [L B]; [lia|lia|]. split; [simpl; lia|]. constructor; [apply uadd_lt|assumption].
Qed.
Lemma zeros_ok : forall n, key_ok n (repeat 0%N n).
Proof.
  intros n. split; [apply repeat_length|]. apply Forall_forall. intros e He. apply repeat_spec in He. subst. reflexivity.
Qed.

Lemma vadd_spec : forall n i a b la lb, length a = n -> length b = n ->
  vadd n i a b la lb = Ok (kadd_w a b).
Proof.
  unfold kadd_w. induction n as [|n IH]; intros i a b la lb La Lb.
  - destruct a; [|discriminate]. destruct b; [|discriminate]. reflexivity.
  - destruct a as [|x a]; [discriminate|]. destruct b as [|y b]; [discriminate|].
    simpl. rewrite IH by (simpl in *; lia). reflexivity.
Qed.

Lemma sumL_t_scale : forall f ka ca B g,
  sumL (t_scale f ka ca B) g = ca * sumL B (fun kb => g (kadd f ka kb)).
Proof.
  intros f ka ca. induction B as [|[kb cb] B IH]; intros g; simpl; [ring|].
  unfold t_scale in IH. rewrite IH. ring.
Qed.
Lemma sumL_t_mul : forall f A B g,
  sumL (t_mul f A B) g = sumL A (fun ka => sumL B (fun kb => g (kadd f ka kb))).
Proof.
  intros f. induction A as [|[ka ca] A IH]; intros B g; simpl; [reflexivity|].
  rewrite sumL_app, sumL_t_scale, IH. reflexivity.
Qed.

Lemma t_mul_peq : forall f A A' B B', peq A A' -> peq B B' -> peq (t_mul f A B) (t_mul f A' B').
Proof.
  intros f A A' B B' HA HB m. unfold coeffL. rewrite !sumL_t_mul.
  rewrite (sumL_peq A A' _ HA). apply sumL_ext. intros ka. apply sumL_peq. assumption.
Qed.
Lemma t_mul_assoc_w : forall A B C, peq (t_mul uadd (t_mul uadd A B) C) (t_mul uadd A (t_mul uadd B C)).
Proof.
  intros A B C m. unfold coeffL. rewrite !sumL_t_mul.
  apply sumL_ext. intros ka. rewrite sumL_t_mul. apply sumL_ext. intros kb. apply sumL_ext. intros kc.
  fold kadd_w. rewrite kadd_w_assoc. reflexivity.
Qed.
Lemma t_mul_nil_r : forall f A, t_mul f A [] = [].
Proof. intros f. induction A as [|[ka ca] A IH]; simpl; [reflexivity|]. assumption. Qed.

Lemma t_mul_one_l : forall n B, keys_ok n B -> t_mul uadd [(repeat 0%N n, 1)] B = B.
Proof.
  intros n B H. cbn [t_mul]. rewrite app_nil_r. unfold t_scale.
  rewrite <- (map_id B) at 2. apply map_ext_in. intros [k c] Hp.
  rewrite Forall_forall in H. specialize (H _ Hp). cbn [fst snd] in *. fold kadd_w.
  rewrite kadd_w_zeros_l by assumption. unfold id. f_equal. apply Z.mul_1_l.
Qed.
Lemma t_mul_const_r : forall n A cb, keys_ok n A ->
  t_mul uadd A [(repeat 0%N n, cb)] = map (fun p => (fst p, snd p * cb)) A.
Proof.
  intros n. induction A as [|[ka ca] A IH]; intros cb H; [reflexivity|].
  inversion H; subst. cbn [fst snd] in *. cbn [t_mul t_scale map app fst snd]. fold kadd_w.
  rewrite kadd_w_zeros_r by assumption. rewrite IH by assumption. reflexivity.
Qed.
Lemma t_mul_one_r : forall n A, keys_ok n A -> t_mul uadd A [(repeat 0%N n, 1)] = A.
Proof.
  intros n A H. rewrite (t_mul_const_r n) by assumption. rewrite <- (map_id A) at 2.
  apply map_ext. intros [k c]. cbn [fst snd]. unfold id. f_equal. apply Z.mul_1_r.
Qed.

(* a property of exponent vectors that the monomial product preserves holds of every key of a
   product, and of a power *)
Lemma t_mul_Forall : forall (P : mono -> Prop) f A B, (forall a b, P a -> P b -> P (kadd f a b)) ->
  Forall (fun p => P (fst p)) A -> Forall (fun p => P (fst p)) B ->
  Forall (fun p => P (fst p)) (t_mul f A B).
Proof.
  intros P f A B HP HA HB. induction A as [|[ka ca] A IH]; cbn [t_mul]; [constructor|].
  apply Forall_cons_iff in HA as [Hka HA]. apply Forall_app. split; [|apply IH; assumption].
  unfold t_scale. rewrite Forall_map. eapply Forall_impl; [|exact HB]. intros [kb cb] Hkb. apply HP; assumption.
Qed.
Lemma t_pow_Forall : forall (P : mono -> Prop) f nv A n, (forall a b, P a -> P b -> P (kadd f a b)) ->
  P (repeat 0%N nv) -> Forall (fun p => P (fst p)) A -> Forall (fun p => P (fst p)) (t_pow f nv A n).
Proof.
  intros P f nv A n HP H0 HA. induction n as [|n IH]; cbn [t_pow]; [repeat constructor; exact H0|].
  apply t_mul_Forall; assumption.
Qed.

Lemma kadd_w_keys_ok : forall n a b, key_ok n a -> key_ok n b -> key_ok n (kadd uadd a b).
Proof. intros n a b [La _] [Lb _]. apply kadd_w_ok; assumption. Qed.
Lemma t_mul_keys_ok : forall n A B, keys_ok n A -> keys_ok n B -> keys_ok n (t_mul uadd A B).
Proof. intros n A B. apply (t_mul_Forall (key_ok n)), kadd_w_keys_ok. Qed.
Lemma t_pow_keys_ok : forall nv A n, keys_ok nv A -> keys_ok nv (t_pow uadd nv A n).
Proof. intros nv A n. apply (t_pow_Forall (key_ok nv)); [apply kadd_w_keys_ok|apply zeros_ok]. Qed.

Lemma t_pow_add : forall nv A i j, keys_ok nv A ->
  peq (t_mul uadd (t_pow uadd nv A i) (t_pow uadd nv A j)) (t_pow uadd nv A (i + j)).
Proof.
  intros nv A i j H. induction i as [|i IH]; cbn [t_pow Nat.add].
  - rewrite t_mul_one_l by (apply t_pow_keys_ok; assumption). apply peq_refl.
  - eapply peq_trans; [apply t_mul_assoc_w|]. apply t_mul_peq; [apply peq_refl|exact IH].
Qed.

Lemma kmax_cons : forall x k, kmax (x :: k) = N.max x (kmax k).
Proof. reflexivity. Qed.
Lemma tmax_cons : forall k c L, tmax ((k, c) :: L) = N.max (kmax k) (tmax L).
Proof. reflexivity. Qed.
Lemma tmax_in : forall L k c, In (k, c) L -> (kmax k <= tmax L)%N.
Proof.
  induction L as [|[k0 c0] L IH]; intros k c H; [destruct H|].
  rewrite tmax_cons. destruct H as [H|H].
  - injection H as -> ->. lia.
  - specialize (IH _ _ H). lia.
Qed.
Lemma kadd_nowrap : forall a b, (kmax a + kmax b < W32)%N -> kadd uadd a b = kadd N.add a b.
Proof.
  induction a as [|x a IH]; intros b H; [reflexivity|].
  destruct b as [|y b]; [reflexivity|]. rewrite !kmax_cons in H. cbn [kadd].
  rewrite IH by lia. f_equal. unfold uadd. apply N.mod_small. lia.
Qed.
Lemma t_scale_nowrap : forall ka ca B, (kmax ka + tmax B < W32)%N ->
  t_scale uadd ka ca B = t_scale N.add ka ca B.
Proof.
  intros ka ca B H. unfold t_scale. apply map_ext_in. intros [kb cb] Hp. cbn [fst snd].
  pose proof (tmax_in _ _ _ Hp). rewrite kadd_nowrap by lia. reflexivity.
Qed.
Lemma t_mul_nowrap : forall A B, (tmax A + tmax B < W32)%N -> t_mul uadd A B = t_mul N.add A B.
Proof.
  induction A as [|[ka ca] A IH]; intros B H; [reflexivity|].
  rewrite tmax_cons in H. cbn [t_mul]. rewrite IH by lia. rewrite t_scale_nowrap by lia. reflexivity.
Qed.

Lemma kmax_kadd : forall a b, (kmax (kadd N.add a b) <= kmax a + kmax b)%N.
Proof.
  induction a as [|x a IH]; intros b; [cbn; lia|].
  destruct b as [|y b]; [cbn [kadd]; cbn; lia|]. cbn [kadd]. rewrite !kmax_cons. specialize (IH b). lia.
Qed.
Lemma tmax_app : forall A B, tmax (A ++ B) = N.max (tmax A) (tmax B).
Proof.
  induction A as [|[k c] A IH]; intros B; [cbn [app]; cbn; lia|].
  cbn [app]. rewrite !tmax_cons, IH. lia.
Qed.
Lemma tmax_t_scale : forall ka ca B, (tmax (t_scale N.add ka ca B) <= kmax ka + tmax B)%N.
Proof.
  intros ka ca. induction B as [|[kb cb] B IH]; [cbn; lia|].
  unfold t_scale in *. cbn [map fst snd]. rewrite !tmax_cons. pose proof (kmax_kadd ka kb). lia.
Qed.
Lemma tmax_t_mul : forall A B, (tmax (t_mul N.add A B) <= tmax A + tmax B)%N.
Proof.
  induction A as [|[ka ca] A IH]; intros B; [cbn; lia|].
  cbn [t_mul]. rewrite tmax_app, tmax_cons. pose proof (tmax_t_scale ka ca B). specialize (IH B). lia.
Qed.
Lemma kmax_zeros : forall n, kmax (repeat 0%N n) = 0%N.
Proof. induction n as [|n IH]; [reflexivity|]. cbn [repeat]. rewrite kmax_cons, IH. reflexivity. Qed.
Lemma tmax_t_pow : forall nv A n, (tmax (t_pow N.add nv A n) <= N.of_nat n * tmax A)%N.
Proof.
  intros nv A. induction n as [|n IH]; cbn [t_pow].
  - rewrite tmax_cons, kmax_zeros. cbn. lia.
  - rewrite Nat2N.inj_succ, N.mul_succ_l. pose proof (tmax_t_mul A (t_pow N.add nv A n)). lia.
Qed.
Lemma t_pow_nowrap : forall nv A n, (N.of_nat n * tmax A < W32)%N ->
  t_pow uadd nv A n = t_pow N.add nv A n.
Proof.
  intros nv A. induction n as [|n IH]; intros H; cbn [t_pow]; [reflexivity|].
  rewrite Nat2N.inj_succ, N.mul_succ_l in H.
  rewrite IH by lia. apply t_mul_nowrap. pose proof (tmax_t_pow nv A n). lia.
Qed.

(* on keys of the right length the double loop accumulates the terms of the schoolbook product *)
Lemma mul_row_eq : forall n vs ka ca bd p, N.to_nat vs = n -> key_ok n ka -> keys_ok n bd ->
  mul_row vs ka ca bd p = Ok (accum false p (t_scale uadd ka ca bd)).
Proof.
  intros n vs ka ca bd. induction bd as [|[kb cb] bd IH]; intros p Hvs Hka Hbd; [reflexivity|].
  apply Forall_cons_iff in Hbd as [Hkb Hbd]. cbn [fst] in Hkb.
  cbn [mul_row]. rewrite Hvs, vadd_spec by (apply Hka || apply Hkb). cbn [bind].
  rewrite mul_acc_upsert. apply IH; assumption.
Qed.
Lemma mul_rows_eq : forall n vs ad bd p, N.to_nat vs = n -> keys_ok n ad -> keys_ok n bd ->
  mul_rows vs ad bd p = Ok (accum false p (t_mul uadd ad bd)).
Proof.
  intros n vs ad bd. induction ad as [|[ka ca] ad IH]; intros p Hvs Had Hbd; [reflexivity|].
  apply Forall_cons_iff in Had as [Hka Had]. cbn [fst] in Hka.
  cbn [mul_rows t_mul]. rewrite (mul_row_eq n) by assumption. cbn [bind].
  rewrite IH by assumption. unfold accum. rewrite fold_left_app. reflexivity.
Qed.

Theorem cmul_spec : forall a b, cont_ok a -> cont_ok b -> csize a = csize b ->
  exists r, cmul a b = Ok r /\ cont_ok r /\ csize r = csize a /\
    denotes r (t_mul uadd (cdict a) (cdict b)).
Proof.
  intros a b Ha Hb E. apply cont_ok_keys in Ha, Hb. rewrite <- E in Hb.
  unfold cmul. rewrite (mul_rows_eq _ _ _ _ _ eq_refl Ha Hb). cbn [bind].
  destruct (accum_spec false _ _ [] (NoDup_nil _) (Forall_nil _) (t_mul_keys_ok _ _ _ Ha Hb)) as [ND [HK C]].
  eexists. split; [reflexivity|]. split; [|split; [reflexivity|]].
  - apply dict_ok_dnz; assumption.
  - intros m. cbn [cdict]. rewrite coeff_dnz by assumption. apply C.
Qed.

(* operator*= : same result as mul, through its shortcuts *)
Theorem cmul_assign_spec : forall a b, cont_ok a -> cont_ok b -> csize a = csize b ->
  exists r, cmul_assign a b = Ok r /\ cont_ok r /\ csize r = csize a /\
    denotes r (t_mul uadd (cdict a) (cdict b)).
Proof.
  intros a b Ha Hb E. unfold cmul_assign.
  destruct (cdict a) as [|pa ra] eqn:Da.
  - exists a. split; [reflexivity|]. split; [assumption|]. split; [reflexivity|].
    intros m. rewrite Da. reflexivity.
  - rewrite <- Da. clear Da pa ra.
    destruct (cdict b) as [|[kb cb] rb] eqn:Db.
    + eexists. split; [reflexivity|]. split; [split; constructor|]. split; [reflexivity|].
      intros m. rewrite t_mul_nil_r. reflexivity.
    + destruct ((match rb with [] => true | _ :: _ => false end)
                && (match dfind (zeros (csize a)) ((kb, cb) :: rb) with Some _ => true | None => false end)) eqn:Sc.
      * (* b is the constant cb: every value of a is multiplied by it *)
        apply andb_prop in Sc as [S1 S2]. destruct rb; [|discriminate].
        cbn [dfind] in S2. destruct (mono_eqb_spec (zeros (csize a)) kb) as [<-|]; [|discriminate].
        assert (Hcb : cb <> 0).
        { apply dict_ok_nz in Hb. rewrite Db in Hb. apply Forall_cons_iff in Hb as [Hb _]. exact Hb. }
        pose proof (scale_ok _ cb _ Hcb Ha) as Or.
        eexists. split; [reflexivity|]. split; [exact Or|]. split; [reflexivity|].
        intros m. cbn [cdict]. unfold zeros. rewrite (t_mul_const_r _ _ _ (cont_ok_keys a Ha)).
        apply coeff_coeffL. apply Or.
      * destruct (cmul_spec a b Ha Hb E) as [r [Er [Okr [Sr Cr]]]].
        rewrite <- Db. rewrite Er. cbn [bind]. eexists. split; [reflexivity|].
        split; [|split; [reflexivity|]].
        -- unfold cont_ok in *. cbn [cdict csize]. rewrite <- Sr. assumption.
        -- exact Cr.
Qed.

Lemma Npos_xO_mod : forall q, (N.pos q~0 mod 2 = 0)%N.
Proof. intros q. replace (N.pos q~0) with (N.pos q * 2)%N by (rewrite N.mul_comm; reflexivity). apply N.mod_mul. discriminate. Qed.
Lemma Npos_xO_div : forall q, (N.pos q~0 / 2 = N.pos q)%N.
Proof. intros q. replace (N.pos q~0) with (N.pos q * 2)%N by (rewrite N.mul_comm; reflexivity). apply N.div_mul. discriminate. Qed.
Lemma Npos_xI_mod : forall q, (N.pos q~1 mod 2 = 1)%N.
Proof.
  intros q. replace (N.pos q~1) with (1 + N.pos q * 2)%N by (rewrite N.mul_comm; reflexivity). rewrite N.mod_add by discriminate. reflexivity.
Qed.
Lemma Npos_xI_div : forall q, (N.pos q~1 / 2 = N.pos q)%N.
Proof.
  intros q. replace (N.pos q~1) with (1 + N.pos q * 2)%N by (rewrite N.mul_comm; reflexivity). rewrite N.div_add by discriminate. reflexivity.
Qed.

(* the product of two containers that denote powers of A *)
Lemma cmul_pow : forall nv A x y i j, keys_ok nv A -> cont_ok x -> cont_ok y -> csize x = csize y ->
  denotes x (t_pow uadd nv A i) -> denotes y (t_pow uadd nv A j) ->
  exists r, cmul x y = Ok r /\ cont_ok r /\ csize r = csize x /\ denotes r (t_pow uadd nv A (i + j)).
Proof.
  intros nv A x y i j HA Ox Oy E Dx Dy. destruct (cmul_spec x y Ox Oy E) as [r [Er [Or [Sr Dr]]]].
  exists r. split; [assumption|]. split; [assumption|]. split; [assumption|].
  eapply denotes_trans; [exact Dr|]. eapply peq_trans; [|apply t_pow_add; assumption].
  apply t_mul_peq; apply denotes_peq; assumption.
Qed.

(* invariant of the loop: tmp = A^T, res = A^R, and R + T * p is the requested exponent *)
Lemma cpow_loop_spec : forall nv A, keys_ok nv A -> forall q fuel tmp rs T R,
  (Pos.size_nat q <= fuel)%nat ->
  cont_ok tmp -> cont_ok rs -> csize tmp = csize rs ->
  denotes tmp (t_pow uadd nv A T) -> denotes rs (t_pow uadd nv A R) ->
  exists r, cpow_loop fuel tmp rs (N.pos q) = Ok r /\ cont_ok r /\ csize r = csize rs /\
    denotes r (t_pow uadd nv A (R + T * Pos.to_nat q)).
Proof.
  intros nv A HA. induction q as [q IH|q IH|]; intros fuel tmp rs T R Hf Ot Or Es Dt Dr;
    (destruct fuel as [|f]; [simpl in Hf; lia|]); cbn [cpow_loop].
  - (* q~1 : res = res * tmp; tmp = tmp * tmp *)
    change (N.pos q~1 =? 1)%N with false. cbv iota. rewrite Npos_xI_mod, Npos_xI_div.
    change (1 =? 0)%N with false. cbv iota.
    destruct (cmul_pow nv A rs tmp R T HA Or Ot (eq_sym Es) Dr Dt) as [r1 [-> [O1 [S1 D1]]]].
    destruct (cmul_pow nv A tmp tmp T T HA Ot Ot eq_refl Dt Dt) as [t1 [-> [O2 [S2 D2]]]]. cbn [bind].
    destruct (IH f t1 r1 (T + T)%nat (R + T)%nat) as [r [Er [Orr [Sr Drr]]]];
      try assumption; [simpl in Hf; lia|congruence|].
    exists r. split; [assumption|]. split; [assumption|]. split; [congruence|].
    replace (R + T * Pos.to_nat q~1)%nat with (R + T + (T + T) * Pos.to_nat q)%nat
      by (rewrite Pos2Nat.inj_xI; lia). assumption.
  - (* q~0 : tmp = tmp * tmp *)
    change (N.pos q~0 =? 1)%N with false. cbv iota. rewrite Npos_xO_mod, Npos_xO_div.
    change (0 =? 0)%N with true. cbv iota.
    destruct (cmul_pow nv A tmp tmp T T HA Ot Ot eq_refl Dt Dt) as [t1 [-> [O2 [S2 D2]]]]. cbn [bind].
    destruct (IH f t1 rs (T + T)%nat R) as [r [Er [Orr [Sr Drr]]]];
      try assumption; [simpl in Hf; lia|congruence|].
    exists r. split; [assumption|]. split; [assumption|]. split; [assumption|].
    replace (R + T * Pos.to_nat q~0)%nat with (R + (T + T) * Pos.to_nat q)%nat
      by (rewrite Pos2Nat.inj_xO; lia). assumption.
  - (* 1 : return res * tmp *)
    change (1 =? 1)%N with true. cbv iota. rewrite Pos2Nat.inj_1, Nat.mul_1_r.
    exact (cmul_pow nv A rs tmp R T HA Or Ot (eq_sym Es) Dr Dt).
Qed.

Lemma size_nat_size : forall q, Pos.to_nat (Pos.size q) = Pos.size_nat q.
Proof. induction q as [q IH|q IH|]; simpl; rewrite ?Pos2Nat.inj_succ, ?IH; reflexivity. Qed.

(* UDictWrapper::pow: for every exponent the loop ends within [pow_fuel n] rounds and the result
   is the n-fold product (exponents added as the code adds them, modulo 2^32) *)
Theorem cpow_spec : forall a n, cont_ok a ->
  exists r, cpow (pow_fuel n) a n = Ok r /\ cont_ok r /\ csize r = csize a /\
    denotes r (t_pow uadd (N.to_nat (csize a)) (cdict a) (N.to_nat n)).
Proof.
  intros a n Oa. unfold cpow.
  set (one := {| cdict := [(zeros (csize a), 1)]; csize := csize a |}).
  assert (O1 : cont_ok one).
  { unfold cont_ok, one. cbn [cdict csize]. split.
    - cbn [map fst]. constructor; [intros []|constructor].
    - constructor; [|constructor]. cbn [fst snd]. split; [apply zeros_ok|discriminate]. }
  assert (D1 : denotes one (t_pow uadd (N.to_nat (csize a)) (cdict a) 0)).
  { intros m. rewrite coeff_coeffL by (apply O1). reflexivity. }
  destruct n as [|q].
  - change (0 =? 0)%N with true. cbv iota. exists one. split; [reflexivity|]. split; [assumption|].
    split; [reflexivity|]. exact D1.
  - change (N.pos q =? 0)%N with false. cbv iota.
    destruct (cpow_loop_spec (N.to_nat (csize a)) (cdict a) (cont_ok_keys a Oa) q (pow_fuel (N.pos q)) a one 1%nat 0%nat)
      as [r [Er [Orr [Sr Dr]]]].
    + unfold pow_fuel. cbn [N.size]. change (N.to_nat (N.pos (Pos.size q))) with (Pos.to_nat (Pos.size q)).
      rewrite size_nat_size. lia.
    + assumption.
    + assumption.
    + reflexivity.
    + intros m. cbn [t_pow]. rewrite t_mul_one_r by (apply cont_ok_keys; assumption).
      apply coeff_coeffL. apply Oa.
    + exact D1.
    + exists r. split; [assumption|]. split; [assumption|]. split; [assumption|].
      replace (N.to_nat (N.pos q)) with (0 + 1 * Pos.to_nat q)%nat by (simpl; lia). assumption.
Qed.

