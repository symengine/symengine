(* C22 -- soundness of the executable well-formedness check. *)
From SE Require Import C22.MPolySpec C22.MPolyDict C22.MPolyWfDef.
From Coq Require Import Sorted.

Lemma nodupb_sound : forall l, nodupb l = true -> NoDup l.
Proof.
  induction l as [|k r IH]; intros H; [constructor|].
  cbn [nodupb] in H. apply andb_prop in H as [H1 H2]. constructor; [|apply IH; assumption].
  intros Hin. apply negb_true_iff in H1.
  assert (existsb (mono_eqb k) r = true) by (apply existsb_exists; exists k; split; [assumption|apply mono_eqb_refl]).
  congruence.
Qed.

Lemma cont_okb_sound : forall c, cont_okb c = true -> cont_ok c.
Proof.
  intros c H. unfold cont_okb in H. apply andb_prop in H as [H1 H2].
  split; [apply nodupb_sound; assumption|].
  apply Forall_forall. intros p Hp. rewrite forallb_forall in H2. specialize (H2 _ Hp).
  unfold entry_okb in H2. apply andb_prop in H2 as [H2 H3]. apply andb_prop in H2 as [H2 H4].
  split; [split|].
  - apply Nat.eqb_eq. assumption.
  - apply Forall_forall. intros e He. rewrite forallb_forall in H4. specialize (H4 _ He).
    apply N.ltb_lt. assumption.
  - apply negb_true_iff in H3. apply Z.eqb_neq. assumption.
Qed.

Theorem poly_okb_sound : forall (V : Type) (vlt : V -> V -> bool) (p : mpoly V),
  poly_okb vlt p = true -> poly_ok vlt p.
Proof.
  intros V vlt p H. unfold poly_okb in H. apply andb_prop in H as [H H3]. apply andb_prop in H as [H1 H2].
  split; [|split].
  - clear H2 H3. unfold sorted. induction (pvars p) as [|a r IH]; [constructor|].
    cbn [sortedb] in H1. apply andb_prop in H1 as [Ha Hr]. constructor; [apply IH; assumption|].
    apply Forall_forall. intros b Hb. rewrite forallb_forall in Ha. apply Ha. assumption.
  - apply N.eqb_eq. assumption.
  - apply cont_okb_sound. assumption.
Qed.
