(* C22 obligation (refutation): (x**(2**31))**2 = 1 in the model (exponent wrap). *)
From SE Require Import C22.MPolySpec C22.MPolyMain.
Local Open Scope Z_scope.
Theorem C22_mpow_true_refuted :
  exists (a : spoly) (n : N) (r : spoly), poly_ok sym_lt a /\ s_pow a n = Ok r /\
    exists m, coeff (cdict (pcont r)) m <>
              coeffL (t_pow N.add (length (pvars a)) (cdict (pcont a)) (N.to_nat n)) m.
Proof. exact mpow_true_refuted. Qed.
Print Assumptions C22_mpow_true_refuted.
