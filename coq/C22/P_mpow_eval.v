(* C22 obligation: evaluation commutes with pow_mpoly (exponent 0 included) when no exponent of the
   power can reach 2^32. *)
From SE Require Import C22.MPolySpec C22.MPolyEval.
Local Open Scope Z_scope.
Theorem C22_mpow_eval :
  forall (V : Type) (vlt : V -> V -> bool) (a : mpoly V) (n : N) (vals : list (V * Z)),
    poly_ok vlt a -> covers vlt vals (pvars a) ->
    (n * tmax (cdict (pcont a)) < W32)%N ->
    exists r va, mpow (pow_fuel n) a n = Ok r /\ meval vlt a vals = Ok va /\
      meval vlt r vals = Ok (va ^ Z.of_N n).
Proof. exact (@mpow_eval). Qed.
Print Assumptions C22_mpow_eval.
