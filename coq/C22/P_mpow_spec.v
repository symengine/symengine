(* C22 obligation: pow_mpoly terminates within its fuel for EVERY exponent (0 included: the loop
   `while (p != 1)` is guarded by `if (p == 0) return res;` since fix 79085be) and returns the n-fold
   schoolbook product (exponents added as the code adds them). *)
From SE Require Import C22.MPolySpec C22.MPolyOps.
Local Open Scope Z_scope.
Theorem C22_mpow_spec :
  forall (V : Type) (vlt : V -> V -> bool) (a : mpoly V) (n : N), poly_ok vlt a ->
    exists r, mpow (pow_fuel n) a n = Ok r /\ poly_ok vlt r /\ pvars r = pvars a /\
      forall m, coeff (cdict (pcont r)) m =
                coeffL (t_pow uadd (length (pvars a)) (cdict (pcont a)) (N.to_nat n)) m.
Proof. exact @mpow_spec_w. Qed.
Print Assumptions C22_mpow_spec.
