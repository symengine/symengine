(* C22 -- add_mpoly / sub_mpoly / neg_mpoly / mul_mpoly / pow_mpoly over arbitrary pairs of generator
   sets: the result is well-formed over the union of the generators and its coefficient function is the
   schoolbook sum / difference / negation / product / power of the operands written over the union. *)
From SE Require Import C22.MPolySpec C22.MPolyDict C22.MPolyRec C22.MPolyArith.
From Coq Require Import Lia.
Local Open Scope Z_scope.
Local Open Scope res_scope.

Section Ops.
  Context {V : Type}.
  Variable vlt : V -> V -> bool.
  Variable veqb : V -> V -> bool.
  Hypothesis laws : order_laws vlt veqb.

  Notation lift := (lift veqb).
  Notation embed := (embed veqb).
  Notation expo := (expo veqb).

  (* one operand written over a sorted list that holds its generators *)
  Lemma operand_over : forall s a, sorted vlt s -> incl (pvars a) s -> poly_ok vlt a ->
    exists x, ctranslate (pcont a) (map (index_in veqb s) (pvars a)) (len s) = Ok x /\
      cont_ok x /\ csize x = len s /\ denotes x (lift s (pvars a) (cdict (pcont a))).
  Proof.
    intros s a Ss Hi [Sa [La Oa]].
    apply (ctranslate_spec vlt veqb laws); auto using (sorted_NoDup vlt veqb laws).
  Qed.

  (* get_translated_container: both operands written over the union *)
  Lemma get_translated_spec : forall a b, poly_ok vlt a -> poly_ok vlt b ->
    exists x y s, get_translated vlt veqb a b = Ok (x, y, s) /\
      sorted vlt s /\ (forall v, In v s <-> In v (pvars a) \/ In v (pvars b)) /\
      cont_ok x /\ cont_ok y /\ csize x = len s /\ csize y = len s /\
      denotes x (lift s (pvars a) (cdict (pcont a))) /\
      denotes y (lift s (pvars b) (cdict (pcont b))).
  Proof.
    intros a b Ha Hb. unfold get_translated.
    pose proof (reconcile_spec vlt veqb laws (pvars a) (pvars b) (proj1 Ha) (proj1 Hb)) as R.
    destruct (reconcile vlt veqb (pvars a) (pvars b)) as [[[v1 v2] s] sz].
    destruct R as [Ss [Hin [_ [_ [E1 [E2 Esz]]]]]]. subst v1 v2 sz. rewrite !positions_0.
    destruct (operand_over s a Ss) as [x [Ex [Ox [Sx Cx]]]]; [intros v Hv; apply Hin; left; exact Hv|assumption|].
    destruct (operand_over s b Ss) as [y [Ey [Oy [Sy Cy]]]]; [intros v Hv; apply Hin; right; exact Hv|assumption|].
    rewrite Ex, Ey. cbn [bind]. exists x, y, s. repeat (split; [assumption || reflexivity|]). assumption.
  Qed.

  (* A binary operation on polynomials reconciles the generators, translates both operands and applies
     an operation [op] to the two containers.  When [op] computes the operator [T] on the formal sums
     that its operands denote, the result is [T] of the operands written over the union. *)
  Lemma mbinop_spec : forall (op : cont -> cont -> res cont) (T : terms -> terms -> terms),
    (forall x y, cont_ok x -> cont_ok y -> csize x = csize y ->
       exists r, op x y = Ok r /\ cont_ok r /\ csize r = csize x /\ denotes r (T (cdict x) (cdict y))) ->
    (forall A A' B B', peq A A' -> peq B B' -> peq (T A B) (T A' B')) ->
    forall a b, poly_ok vlt a -> poly_ok vlt b ->
    exists r, (do xys <- get_translated vlt veqb a b;
               let '(x, y, s) := xys in do r <- op x y; Ok (mkPoly s r)) = Ok r /\
      poly_ok vlt r /\
      (forall v, In v (pvars r) <-> In v (pvars a) \/ In v (pvars b)) /\
      forall m, coeff (cdict (pcont r)) m =
        coeffL (T (lift (pvars r) (pvars a) (cdict (pcont a)))
                  (lift (pvars r) (pvars b) (cdict (pcont b)))) m.
  Proof.
    intros op T Hop HT a b Ha Hb.
    destruct (get_translated_spec a b Ha Hb) as [x [y [s [E [Ss [Hin [Ox [Oy [Sx [Sy [Cx Cy]]]]]]]]]]].
    destruct (Hop x y Ox Oy (eq_trans Sx (eq_sym Sy))) as [r [Er [Or [Sr Cr]]]].
    rewrite E. cbn [bind]. rewrite Er. cbn [bind]. eexists. split; [reflexivity|]. cbn [pvars pcont].
    split; [|split; [exact Hin|]].
    - split; [assumption|]. cbn [pvars pcont]. split; [congruence|assumption].
    - eapply denotes_trans; [exact Cr|]. apply HT; apply denotes_peq; assumption.
  Qed.

  Theorem madd_spec : forall a b, poly_ok vlt a -> poly_ok vlt b ->
    exists r, madd vlt veqb a b = Ok r /\ poly_ok vlt r /\
      (forall v, In v (pvars r) <-> In v (pvars a) \/ In v (pvars b)) /\
      forall m, coeff (cdict (pcont r)) m =
        coeffL (t_add (lift (pvars r) (pvars a) (cdict (pcont a)))
                      (lift (pvars r) (pvars b) (cdict (pcont b)))) m.
  Proof using laws.
    apply (mbinop_spec (fun x y => Ok (cadd x y)) t_add); [|apply t_add_peq].
    intros x y Ox Oy E. eexists. split; [reflexivity|]. apply cadd_spec; assumption.
  Qed.

  Theorem msub_spec : forall a b, poly_ok vlt a -> poly_ok vlt b ->
    exists r, msub vlt veqb a b = Ok r /\ poly_ok vlt r /\
      (forall v, In v (pvars r) <-> In v (pvars a) \/ In v (pvars b)) /\
      forall m, coeff (cdict (pcont r)) m =
        coeffL (t_sub (lift (pvars r) (pvars a) (cdict (pcont a)))
                      (lift (pvars r) (pvars b) (cdict (pcont b)))) m.
  Proof.
    apply (mbinop_spec (fun x y => Ok (csub x y)) t_sub); [|apply t_sub_peq].
    intros x y Ox Oy E. eexists. split; [reflexivity|]. apply csub_spec; assumption.
  Qed.

  Theorem mneg_spec : forall a, poly_ok vlt a ->
    poly_ok vlt (mneg a) /\ pvars (mneg a) = pvars a /\
    forall m, coeff (cdict (pcont (mneg a))) m = coeffL (t_neg (cdict (pcont a))) m.
  Proof.
    intros a [Sa [La Oa]]. destruct (cneg_spec (pcont a) Oa) as [On [Sn Cn]].
    split; [|split; [reflexivity|exact Cn]].
    split; [assumption|]. split; [cbn [mneg pvars pcont]; congruence|assumption].
  Qed.

  (* mul_mpoly, against the schoolbook product with the exponent addition of the code (mod 2^32) *)
  Theorem mmul_spec_w : forall a b, poly_ok vlt a -> poly_ok vlt b ->
    exists r, mmul vlt veqb a b = Ok r /\ poly_ok vlt r /\
      (forall v, In v (pvars r) <-> In v (pvars a) \/ In v (pvars b)) /\
      forall m, coeff (cdict (pcont r)) m =
        coeffL (t_mul uadd (lift (pvars r) (pvars a) (cdict (pcont a)))
                           (lift (pvars r) (pvars b) (cdict (pcont b)))) m.
  Proof. exact (mbinop_spec cmul_assign (t_mul uadd) cmul_assign_spec (t_mul_peq uadd)). Qed.

  (* writing a polynomial over more generators does not raise its largest exponent *)
  Lemma expo_le_kmax : forall S k u, (expo S k u <= kmax k)%N.
  Proof.
    induction S as [|s S IH]; intros k u; cbn [MPolySpec.expo]; [lia|].
    destruct k as [|e k]; [lia|]. rewrite kmax_cons. destruct (veqb s u); [lia|]. specialize (IH k u). lia.
  Qed.
  Lemma kmax_embed : forall U S k, (kmax (embed U S k) <= kmax k)%N.
  Proof.
    intros U S k. unfold MPolySpec.embed. induction U as [|u U IH]; cbn [map]; [cbn; lia|].
    rewrite kmax_cons. pose proof (expo_le_kmax S k u). lia.
  Qed.
  Lemma tmax_lift : forall U S d, (tmax (lift U S d) <= tmax d)%N.
  Proof.
    intros U S. induction d as [|[k c] d IH]; [cbn; lia|].
    unfold MPolySpec.lift in *. cbn [map fst snd]. rewrite !tmax_cons.
    pose proof (kmax_embed U S k). lia.
  Qed.

  (* ... and against the mathematical product when no exponent of the result can reach 2^32 *)
  Theorem mmul_spec_guarded : forall a b, poly_ok vlt a -> poly_ok vlt b ->
    (tmax (cdict (pcont a)) + tmax (cdict (pcont b)) < W32)%N ->
    exists r, mmul vlt veqb a b = Ok r /\ poly_ok vlt r /\
      (forall v, In v (pvars r) <-> In v (pvars a) \/ In v (pvars b)) /\
      forall m, coeff (cdict (pcont r)) m =
        coeffL (t_mul N.add (lift (pvars r) (pvars a) (cdict (pcont a)))
                            (lift (pvars r) (pvars b) (cdict (pcont b)))) m.
  Proof using laws.
    intros a b Ha Hb G. destruct (mmul_spec_w a b Ha Hb) as [r [E [Or [Hin C]]]].
    exists r. split; [assumption|]. split; [assumption|]. split; [assumption|].
    intros m. rewrite C. rewrite t_mul_nowrap; [reflexivity|].
    pose proof (tmax_lift (pvars r) (pvars a) (cdict (pcont a))).
    pose proof (tmax_lift (pvars r) (pvars b) (cdict (pcont b))). lia.
  Qed.

  (* pow_mpoly: every exponent, within the fuel; the n-fold product as the code adds exponents,
     and the mathematical one when n * (largest exponent) stays below 2^32 *)
  Theorem mpow_spec_w : forall (a : mpoly V) n, poly_ok vlt a ->
    exists r, mpow (pow_fuel n) a n = Ok r /\ poly_ok vlt r /\ pvars r = pvars a /\
      forall m, coeff (cdict (pcont r)) m =
                coeffL (t_pow uadd (length (pvars a)) (cdict (pcont a)) (N.to_nat n)) m.
  Proof.
    intros a n [Sa [La Oa]]. destruct (cpow_spec (pcont a) n Oa) as [r [Er [Or [Sr Dr]]]].
    unfold mpow. rewrite Er. cbn [bind]. eexists. split; [reflexivity|].
    unfold poly_ok. cbn [pvars pcont]. split; [|split; [reflexivity|]].
    - split; [assumption|]. split; [congruence|assumption].
    - intros m. rewrite (Dr m). rewrite <- La. rewrite len_length. reflexivity.
  Qed.

  Theorem mpow_spec_guarded : forall (a : mpoly V) n, poly_ok vlt a ->
    (n * tmax (cdict (pcont a)) < W32)%N ->
    exists r, mpow (pow_fuel n) a n = Ok r /\ poly_ok vlt r /\ pvars r = pvars a /\
      forall m, coeff (cdict (pcont r)) m =
                coeffL (t_pow N.add (length (pvars a)) (cdict (pcont a)) (N.to_nat n)) m.
  Proof.
    intros a n Ha G. destruct (mpow_spec_w a n Ha) as [r [E [Or [Ev C]]]].
    exists r. split; [assumption|]. split; [assumption|]. split; [assumption|].
    intros m. rewrite C. rewrite t_pow_nowrap; [reflexivity|]. lia.
  Qed.
End Ops.
