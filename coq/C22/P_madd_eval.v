(* C22 obligation: evaluation commutes with add_mpoly for all pairs of generator sets. *)
From SE Require Import C22.MPolySpec C22.MPolyEval.
Local Open Scope Z_scope.
Theorem C22_madd_eval :
  forall (V : Type) (vlt veqb : V -> V -> bool), order_laws vlt veqb ->
  forall (a b : mpoly V) (vals : list (V * Z)), poly_ok vlt a -> poly_ok vlt b ->
    covers vlt vals (pvars a) -> covers vlt vals (pvars b) ->
    exists r va vb, madd vlt veqb a b = Ok r /\ meval vlt a vals = Ok va /\ meval vlt b vals = Ok vb /\
      meval vlt r vals = Ok (va + vb).
Proof. exact @madd_eval. Qed.
Print Assumptions C22_madd_eval.
