(* C22 obligation: the instance used by the correspondence (Symbols ordered by RCPBasicKeyLess, as
   modelled in Expr/Cmp.v and validated by C01/C02) satisfies the order laws that every generic C22
   theorem assumes. *)
From SE Require Import C22.MPolySpec C22.MPolyInst.
Local Open Scope Z_scope.
Theorem C22_sym_order_laws :
  order_laws sym_lt sym_eqb.
Proof. exact sym_order_laws. Qed.
Print Assumptions C22_sym_order_laws.
