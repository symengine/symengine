(* C22 obligation: when the largest exponents of the operands add up to less than 2^32, mul_mpoly is
   the mathematical schoolbook product over the union of the generators. *)
From SE Require Import C22.MPolySpec C22.MPolyOps.
Local Open Scope Z_scope.
Theorem C22_mmul_spec_guarded :
  forall (V : Type) (vlt veqb : V -> V -> bool), order_laws vlt veqb ->
  forall a b : mpoly V, poly_ok vlt a -> poly_ok vlt b ->
    (tmax (cdict (pcont a)) + tmax (cdict (pcont b)) < W32)%N ->
    exists r, mmul vlt veqb a b = Ok r /\ poly_ok vlt r /\
      (forall v, In v (pvars r) <-> In v (pvars a) \/ In v (pvars b)) /\
      forall m, coeff (cdict (pcont r)) m =
        coeffL (t_mul N.add (lift veqb (pvars r) (pvars a) (cdict (pcont a)))
                   (lift veqb (pvars r) (pvars b) (cdict (pcont b)))) m.
Proof. exact @mmul_spec_guarded. Qed.
Print Assumptions C22_mmul_spec_guarded.
