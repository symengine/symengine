(* C29 obligation (corollary of C29_Le_correct_exact): on exact reals and +-oo of ANY size, the
   answers of Le form a total preorder whose kernel is numeric equality: Le(a,a) is True; Le is
   transitive; one of Le(a,b), Le(b,a) is True; and both True only for numerically equal
   values.  (Equal values of different kinds, Le(1, 1.0) = True since commit 117ad73, are
   C29_Le_equal_values_different_kinds in P_Le_correct.v.) *)
From SE Require Import Num.NumModel Num.NumC29 Num.NumC29O.
Theorem C29_Le_total_preorder_exact : forall a b c x y z,
  xreal a = true -> xreal b = true -> xreal c = true ->
  val a = Some x -> val b = Some y -> val c = Some z ->
  rel_le a a = Ok (Some true) /\
  (rel_le a b = Ok (Some true) -> rel_le b c = Ok (Some true) -> rel_le a c = Ok (Some true)) /\
  (rel_le a b = Ok (Some true) \/ rel_le b a = Ok (Some true)) /\
  (rel_le a b = Ok (Some true) -> rel_le b a = Ok (Some true) -> ext_eqb x y = true).
Proof. exact Le_total_preorder_exact. Qed.
Print Assumptions C29_Le_total_preorder_exact.
