(* C08 obligation: the constructors sin, cos, tan, cot, sec, csc (mutual recursion through
   trig_simplify, at any depth) return a result with the value of the function at the argument. *)
From Coq Require Import Rdefinitions.
From SE Require Import Expr.ExprDefs C08.FuncModel C08.FuncSpec C08.CtorProofs.
Local Open Scope R_scope.
Theorem C08_ctor_sound :
  forall (kv av : expr -> R), kv_ok kv ->
  forall (fuel : nat) (f : trigfn) (sg : Z) (arg : lin), lin_real arg = true ->
    res_ok kv av (IZR sg * F f (lin_den kv arg)) (ctor fuel f sg arg).
Proof. intros kv av H fuel. exact (ctor_sound kv av H fuel). Qed.
Print Assumptions C08_ctor_sound.
