(* C08: the hypotheses of the theorems are met by concrete non-trivial inputs, and the model
   computes the expected outputs on them (evaluated by the kernel). *)
From Coq Require Import Rdefinitions QArith List.
From SE Require Import Expr.ExprDefs C08.FuncModel C08.FuncSpec C08.TrigProofs C08.CtorProofs C08.ExactProofs.
Import ListNotations.
Local Open Scope Z_scope.

Definition X : expr := ESym [120%N].
Definition Y : expr := ESym [121%N].
(* x + 7/3 pi,  x + 3 pi,  -x - y - (10^26+1)/6 pi,  17/12 pi *)
Definition arg1 : lin := mkLin (NInt 0) [(X, NInt 1); (PI_E, NRat 7 3)].
Definition arg2 : lin := mkLin (NInt 0) [(X, NInt 1); (PI_E, NInt 3)].
Definition arg3 : lin :=
  mkLin (NInt 0) [(X, NInt (-1)); (Y, NInt (-1)); (PI_E, NRat (-100000000000000000000000001) 6)].
Definition arg4 : lin := mkLin (NInt 0) [(PI_E, NRat 17 12)].

(* an admissible valuation exists, and the arguments satisfy the realness hypothesis *)
Example C08_kv_ok_inhabited : forall v, kv_ok (ev v).
Proof. exact ev_kv_ok. Qed.
Example C08_args_real :
  lin_real arg1 = true /\ lin_real arg2 = true /\ lin_real arg3 = true /\ lin_real arg4 = true.
Proof. repeat split. Qed.

(* sin(x + 7/3 pi): shift reduced to pi/3, no sign, no cofunction *)
Example C08_trig_simplify_example :
  trig_simplify 2 true false arg1
  = mkTs (mkLin (NInt 0) [(X, NInt 1); (PI_E, NRat 1 3)]) (Some (-1)) 1 false.
Proof. vm_compute. reflexivity. Qed.

(* sin(x + 3 pi) = -sin(x): the Integer shift that is NOT reduced modulo the period goes through
   the cofunction branch and back;  cos(-x - y - (10^26+1)/6 pi) = -sin(x + y + pi/3);
   tan(17 pi/12), sec(17 pi/12): table exits with indices 17 mod 12 and 17 *)
Example C08_ctor_examples :
  ctor 12 FSin 1 arg2 = RFun (-1) FSin (mkLin (NInt 0) [(X, NInt 1)])
  /\ ctor 12 FCos 1 arg3
     = RFun (-1) FSin (mkLin (NInt 0) [(X, NInt 1); (Y, NInt 1); (PI_E, NRat 1 3)])
  /\ ctor 12 FTan 1 arg4 = RTab 1 FTan 5
  /\ ctor 12 FSec 1 arg4 = RTab 1 FSec 17.
Proof. vm_compute. repeat split. Qed.

(* exact numbers *)
Example C08_exact_examples :
  floor_num (NRat (-7) 2) = Some (NInt (-4))
  /\ ceiling_num (NRat (-7) 2) = Some (NInt (-3))
  /\ truncate_num (NRat (-7) 2) = Some (NInt (-3))
  /\ abs_num (NCplx 3 1 4 1) = Some (AbsNum (NInt 5))
  /\ abs_num (NCplx 1 1 1 1) = Some (AbsSqrt (2 # 1))
  /\ max_fold [XQ (3 # 1); XNegInf; XQ (7 # 2); XQ (-1 # 1)] = FoldOk (XQ (7 # 2))
  /\ min_fold [XInf; XQ (3 # 1)] = FoldOk (XQ (3 # 1))
  /\ levi_eval [1 # 1; 3 # 1; 2 # 1]%Q = (-1 # 1)%Q
  /\ gamma_int 5 = Some 24
  /\ gamma_half 7 = (15 # 8)%Q
  /\ gamma_half (-3) = (4 # 3)%Q
  /\ primepi_int 100 = PPOk 25
  /\ primepi_int 4294967306 = PPTooLarge
  /\ gamma_half 23 = (13749310575 # 2048)%Q
  /\ primorial_int 10 = Some 210.
Proof. vm_compute. repeat split. Qed.
Print Assumptions C08_ctor_examples.
