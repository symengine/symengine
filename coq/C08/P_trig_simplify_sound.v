(* C08 obligation: trig_simplify (with get_pi_shift, handle_minus, could_extract_minus) preserves
   value for each of the six (period, odd, conj_odd) instantiations, for EVERY rational shift
   (unbounded, including the Integer shifts that the code does not reduce modulo the period):
   either the table exit with f(arg) = f(index*pi/12), or f(arg) = sign * (f | cofunction)(rarg). *)
From Coq Require Import Reals.
From SE Require Import Expr.ExprDefs C08.FuncModel C08.FuncSpec C08.TrigProofs.
Local Open Scope R_scope.
Theorem C08_trig_simplify_sound :
  forall (kv : expr -> R), kv_ok kv ->
  forall (f : trigfn) (arg : lin), lin_real arg = true ->
    let ts := trig_simplify (period_of f) (odd_of f) (conj_odd_of f) arg in
    lin_real (ts_rarg ts) = true /\
    ((exists m, ts = mkTs lin_zero (Some m) 1 false /\ (0 <= m < 12 * period_of f)%Z /\
                F f (lin_den kv arg) = F f (IZR m * PI / 12))
     \/
     (F f (lin_den kv arg)
        = IZR (ts_sign ts) * F (if ts_conj ts then cofn f else f) (lin_den kv (ts_rarg ts))
      /\ (ts_index ts = None \/ ts_index ts = Some 0%Z \/ ts_index ts = Some (-1)%Z))).
Proof. exact trig_simplify_sound. Qed.
Print Assumptions C08_trig_simplify_sound.
