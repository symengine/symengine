(* C08 obligation: max / min over Number arguments (rationals and the real infinities, in any
   order) return an element of the list that bounds all the others. *)
From Coq Require Import List.
From SE Require Import C08.FuncModel C08.ExactProofs.
Theorem C08_max_min_fold_sound :
  forall l, l <> nil -> forallb x_real l = true ->
    (exists m, max_fold l = FoldOk m /\ In m l /\ forall x, In x l -> xle x m)
    /\ (exists m, min_fold l = FoldOk m /\ In m l /\ forall x, In x l -> xle m x).
Proof. intros l H1 H2. split; [ apply max_fold_sound | apply min_fold_sound ]; assumption. Qed.
Print Assumptions C08_max_min_fold_sound.
