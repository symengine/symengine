(* C08 -- rational arithmetic of trig_simplify seen in R: the fractional part, the quantity m of
   [ts_m] and the table index of [ts_early] differ from the shift n by a multiple of the period. *)
From Coq Require Import Reals QArith Qreals Lra Lia ZArith.
From SE Require Import Expr.ExprDefs C08.FuncModel C08.FuncSpec.
Local Open Scope R_scope.

Lemma Q2R_Qred q : Q2R (Qred q) = Q2R q.
Proof. apply Qeq_eqR. apply Qred_correct. Qed.

Lemma Q2R_int z : Q2R (z # 1) = IZR z.
Proof. unfold Q2R. simpl. rewrite Rinv_1. ring. Qed.

Lemma Q2R_inject_Z z : Q2R (inject_Z z) = IZR z.
Proof. unfold inject_Z. apply Q2R_int. Qed.

Lemma Qred_idem q : Qred (Qred q) = Qred q.
Proof. apply Qred_complete. apply Qred_correct. Qed.

Lemma Qred_int z : Qred (z # 1) = z # 1.
Proof.
  unfold Qred.
  pose proof (Z.ggcd_gcd z 1) as G.
  pose proof (Z.ggcd_correct_divisors z 1) as D.
  destruct (Z.ggcd z 1) as [g [aa bb]]. simpl in G. rewrite Z.gcd_1_r in G. subst g.
  destruct D as [D1 D2]. rewrite Z.mul_1_l in D1, D2. subst aa bb. reflexivity.
Qed.

Lemma q_is_int_spec q : q_is_int q = true -> Q2R q = IZR (Qnum (Qred q)).
Proof.
  unfold q_is_int. intros H. apply Pos.eqb_eq in H.
  rewrite <- (Q2R_Qred q). destruct (Qred q) as [a b]. simpl in *. subst b. apply Q2R_int.
Qed.

(* for t = Qred x with denominator 1, x has the integer value Qnum t *)
Lemma q_is_int_red x : q_is_int (Qred x) = true -> Q2R x = IZR (Qnum (Qred x)).
Proof. intros H. rewrite <- (Q2R_Qred x), (q_is_int_spec _ H), Qred_idem. reflexivity. Qed.

Lemma q_frac_spec x :
  exists k : Z, Q2R x = Q2R (q_frac x) + IZR k /\ 0 <= Q2R (q_frac x) < 1.
Proof.
  unfold q_frac. rewrite <- (Q2R_Qred x). destruct (Qred x) as [a b]. cbn [Qnum Qden].
  exists (a / Z.pos b)%Z.
  pose proof (Z.div_mod a (Z.pos b) ltac:(lia)) as E.
  pose proof (Z.mod_pos_bound a (Z.pos b) ltac:(lia)) as B.
  assert (Hb : 0 < IZR (Z.pos b)) by (apply IZR_lt; lia).
  unfold Q2R. cbn [Qnum Qden].
  split.
  - assert (IZR a = IZR (Z.pos b) * IZR (a / Z.pos b) + IZR (a mod Z.pos b)) as E'
      by (rewrite <- mult_IZR, <- plus_IZR; f_equal; exact E).
    rewrite E'. field. lra.
  - split.
    + apply Rmult_le_pos; [ apply IZR_le; lia | left; apply Rinv_0_lt_compat; auto ].
    + apply Rmult_lt_reg_r with (IZR (Z.pos b)); auto.
      rewrite Rmult_assoc, Rinv_l by lra. rewrite Rmult_1_r, Rmult_1_l. apply IZR_lt; lia.
Qed.

Lemma Q2R_div_period q p : (p = 1 \/ p = 2)%Z -> Q2R (q / inject_Z p) = Q2R q / IZR p.
Proof.
  intros H. rewrite Q2R_div.
  - rewrite Q2R_inject_Z. reflexivity.
  - destruct H; subst p; discriminate.
Qed.

(* the shift and m/2 differ by a multiple of the period *)
Lemma ts_m_spec period n : (period = 1 \/ period = 2)%Z ->
  exists k : Z, Q2R n = Q2R (ts_m period n) / 2 + IZR period * IZR k.
Proof.
  intros Hp. unfold ts_m.
  destruct (q_is_int n) eqn:Hi.
  - rewrite Q2R_Qred, Q2R_mult, Q2R_Qred, (Q2R_div_period _ _ Hp), Q2R_int, Q2R_inject_Z.
    rewrite (q_is_int_spec _ Hi). set (a := Qnum (Qred n)).
    rewrite mult_IZR.
    destruct (Z_le_gt_dec 0 a).
    + exists 0%Z. rewrite Z.abs_eq by lia. destruct Hp; subst period; simpl; field.
    + rewrite Z.abs_neq by lia. rewrite opp_IZR.
      destruct Hp; subst period.
      * exists (2 * a)%Z. rewrite mult_IZR. simpl. field.
      * exists a. simpl. field.
  - destruct (q_frac_spec (n / inject_Z period)) as [k [E _]].
    rewrite (Q2R_div_period _ _ Hp) in E.
    exists k. rewrite Q2R_Qred, Q2R_mult, Q2R_inject_Z, mult_IZR.
    destruct Hp; subst period; simpl in *; lra.
Qed.

(* period 1, non-integer shift: m stays below 2 *)
Lemma ts_m_bound1 n : q_is_int n = false -> Q2R (ts_m 1 n) < 2.
Proof.
  intros Hi. unfold ts_m. rewrite Hi.
  destruct (q_frac_spec (n / inject_Z 1)) as [k [_ B]].
  rewrite Q2R_Qred, Q2R_mult, Q2R_inject_Z. simpl. lra.
Qed.

(* the table index: n*pi = index*pi/12 modulo the period *)
Lemma early_spec period n : (period = 1 \/ period = 2)%Z ->
  q_is_int (Qred (n * (12 # 1))) = true ->
  exists k : Z,
    Q2R n = IZR (Qnum (Qred (n * (12 # 1))) mod (12 * period)) / 12 + IZR period * IZR k.
Proof.
  intros Hp Hi. pose proof (q_is_int_red _ Hi) as E.
  rewrite Q2R_mult, Q2R_int in E.
  set (a := Qnum (Qred (n * (12 # 1)))) in *.
  exists (a / (12 * period))%Z.
  assert (12 * period <> 0)%Z as Hn by (destruct Hp; subst; lia).
  pose proof (Z.div_mod a (12 * period) Hn) as D.
  assert (IZR a = IZR (12 * period) * IZR (a / (12 * period)) + IZR (a mod (12 * period))) as D'
    by (rewrite <- mult_IZR, <- plus_IZR; f_equal; exact D).
  rewrite mult_IZR in D'.
  destruct Hp; subst period; simpl in *; lra.
Qed.

(* an Integer shift always leaves through ts_early when the period is pi *)
Lemma early_int n : q_is_int n = true ->
  q_is_int (Qred (n * (12 # 1))) = true /\ (Qnum (Qred (n * (12 # 1))) mod 12 = 0)%Z.
Proof.
  unfold q_is_int at 1. intros H. apply Pos.eqb_eq in H.
  assert (n == (Qnum (Qred n) # 1))%Q as E.
  { rewrite <- (Qred_correct n) at 1. destruct (Qred n) as [a b]. simpl in *. subst b. reflexivity. }
  assert (Qred (n * (12 # 1)) = (Qnum (Qred n) * 12 # 1)%Q) as R.
  { rewrite <- (Qred_int (Qnum (Qred n) * 12)). apply Qred_complete. rewrite E at 1.
    unfold Qeq, Qmult. simpl. lia. }
  rewrite R. split.
  - unfold q_is_int. rewrite Qred_int. reflexivity.
  - simpl. apply Z.mod_mul. lia.
Qed.

Lemma qle_R a b : qle a b = true -> Q2R a <= Q2R b.
Proof. unfold qle. intros H. apply Qle_bool_iff in H. apply Qle_Rle. exact H. Qed.

Lemma qlt_false_R a b : qlt a b = false -> Q2R b <= Q2R a.
Proof.
  unfold qlt. intros H. apply Bool.negb_false_iff in H. apply Qle_bool_iff in H. apply Qle_Rle. exact H.
Qed.
