(* C08 obligation: sign of Integers, Rationals and purely imaginary numbers. *)
From Coq Require Import QArith.
From SE Require Import Expr.ExprDefs C08.FuncModel C08.ExactProofs.
Local Open Scope Z_scope.
Theorem C08_sign_exact :
  (forall a, is_real_num a = true ->
     exists s, sign_num a = Some (SgNum (NInt s))
               /\ ((0 < q_of_num a)%Q -> s = 1) /\ ((q_of_num a == 0)%Q -> s = 0)
               /\ ((q_of_num a < 0)%Q -> s = -1))
  /\ (forall imn imd, imn <> 0 ->
       sign_num (NCplx 0 1 imn imd) = Some (SgNum (NCplx 0 1 (Z.sgn imn) 1))).
Proof. split; [ exact sign_exact | exact sign_exact_imaginary ]. Qed.
Print Assumptions C08_sign_exact.
