(* C08 obligation (refutation): floor / ceiling / truncate return an exact Complex unchanged. *)
From Coq Require Import QArith.
From SE Require Import Expr.ExprDefs C08.FuncModel C08.ExactProofs.
Local Open Scope Z_scope.
Theorem C08_floor_complex_refuted :
  exists rn rd imn imd,
    floor_num (NCplx rn rd imn imd) = Some (NCplx rn rd imn imd)
    /\ ceiling_num (NCplx rn rd imn imd) = Some (NCplx rn rd imn imd)
    /\ truncate_num (NCplx rn rd imn imd) = Some (NCplx rn rd imn imd)
    /\ ~ (inject_Z (rn / Zpos rd) == rn # rd)%Q.
Proof. exact floor_complex_refuted. Qed.
Print Assumptions C08_floor_complex_refuted.
