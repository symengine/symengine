(* C08 obligation: floor / ceiling / truncate of a Rational are the integer bounds. *)
From Coq Require Import QArith.
From SE Require Import Expr.ExprDefs C08.FuncModel C08.ExactProofs.
Local Open Scope Z_scope.
Theorem C08_floor_ceiling_truncate_exact :
  forall n d,
    (exists k, floor_num (NRat n d) = Some (NInt k)
               /\ (inject_Z k <= n # d)%Q /\ (n # d < inject_Z k + 1)%Q)
    /\ (exists k, ceiling_num (NRat n d) = Some (NInt k)
               /\ (inject_Z k - 1 < n # d)%Q /\ (n # d <= inject_Z k)%Q)
    /\ truncate_num (NRat n d) = (if 0 <=? n then floor_num (NRat n d) else ceiling_num (NRat n d)).
Proof. intros n d. split; [ apply floor_exact | split; [ apply ceiling_exact | apply truncate_exact ] ]. Qed.
Print Assumptions C08_floor_ceiling_truncate_exact.
