(* C08 -- the six trigonometric constructors preserve value (over R), and the index arithmetic
   on the sine table is that of the functions at multiples of pi/12. *)
From Coq Require Import Reals QArith Qreals Lra Lia ZArith.
From SE Require Import Expr.ExprDefs Expr.Cmp C08.FuncModel C08.FuncSpec C08.TrigIdent C08.TrigArith
  C08.TrigProofs.
Local Open Scope R_scope.

Lemma ts_main_sign odd conj_odd m r :
  (ts_sign (ts_main odd conj_odd m r) = 1 \/ ts_sign (ts_main odd conj_odd m r) = -1)%Z.
Proof.
  unfold ts_main.
  destruct (qle (2 # 1) m && qlt m (3 # 1)).
  - destruct (handle_minus _) as [b ra]. simpl. destruct (odd && b); auto.
  - destruct (qle (1 # 1) m).
    + destruct (qlt m (2 # 1)); cbv beta iota zeta;
        destruct (handle_minus _) as [b ra]; simpl; destruct (negb b && conj_odd); auto.
    + simpl; auto.
Qed.

Lemma trig_simplify_sign period odd conj_odd arg :
  (ts_sign (trig_simplify period odd conj_odd arg) = 1
   \/ ts_sign (trig_simplify period odd conj_odd arg) = -1)%Z.
Proof.
  unfold trig_simplify.
  destruct (get_pi_shift arg) as [[n r]|].
  - destruct (ts_early period odd n r) as [o|] eqn:He.
    + unfold ts_early in He.
      destruct (q_is_int _); try discriminate.
      destruct (lin_is_zero r).
      * injection He as <-. simpl; auto.
      * destruct (_ =? 0)%Z; try discriminate.
        destruct (handle_minus r) as [b ra]. injection He as <-. simpl. destruct (odd && b); auto.
    + apply ts_main_sign.
  - destruct (handle_minus arg) as [b ra]. simpl. destruct (odd && b); auto.
Qed.

Definition ang (i : Z) : R := IZR i * PI / 12.

(* [res_ok v t]: the result t has the value v.
   - a table result stands for g(i*pi/12); index -1 ("no table", never reached with a zero
     argument) is excluded;
   - f(F^-1(a)) -> a and f(G^-1(a)) -> 1/a are right at the points where the inverse-function
     atom denotes a preimage: F g (value of g^-1(a)) = value of a  (over R: inside the domain). *)
Definition res_ok (kv av : expr -> R) (v : R) (t : tres) : Prop :=
  match t with
  | RVal z => IZR z = v
  | RArg s g a => F g (kv (EF1 (inv_direct g) a)) = av a -> IZR s * av a = v
  | RRecip s g a => F g (kv (EF1 (inv_recip g) a)) = 1 / av a -> IZR s * (1 / av a) = v
  | RTab s g i => (0 <= i)%Z -> IZR s * F g (ang i) = v
  | RFun s g l => IZR s * F g (lin_den kv l) = v
  | RUninit | RNumeric | RUnsupported | RFuel => True
  end.

Section Ctor.
  Variable kv av : expr -> R.
  Hypothesis Hkv : kv_ok kv.

  Definition rec_ok (rec : trigfn -> Z -> lin -> tres) : Prop :=
    forall f sg arg, lin_real arg = true ->
      res_ok kv av (IZR sg * F f (lin_den kv arg)) (rec f sg arg).

  Lemma ctor_go_sound rec : rec_ok rec -> rec_ok (ctor_go rec).
  Proof.
    intros IH f sg arg Hr. unfold ctor_go.
    destruct (negb (lin_flat arg)); [ exact I | ].
    pose proof (trig_simplify_sign (period_of f) (odd_of f) (conj_odd_of f) arg) as Hs.
    destruct (trig_simplify_sound kv Hkv f arg Hr) as [Rr [[m [Ets [Bm Em]]] | [E Ix]]].
    - rewrite Ets. cbn [ts_conj ts_rarg ts_index ts_sign]. simpl lin_is_zero. cbn [res_ok].
      intros _. rewrite Em, Z.mul_1_r. reflexivity.
    - set (ts := trig_simplify (period_of f) (odd_of f) (conj_odd_of f) arg) in *.
      destruct (ts_conj ts) eqn:Hc.
      + specialize (IH (cofn f) (sg * ts_sign ts)%Z (ts_rarg ts) Rr).
        rewrite E. rewrite mult_IZR in IH.
        replace (IZR sg * (IZR (ts_sign ts) * F (cofn f) (lin_den kv (ts_rarg ts))))
          with (IZR sg * IZR (ts_sign ts) * F (cofn f) (lin_den kv (ts_rarg ts))) by ring.
        exact IH.
      + destruct (lin_is_zero (ts_rarg ts)) eqn:Hz.
        * destruct (ts_index ts) as [i|] eqn:Hi; [ | exact I ].
          cbn [res_ok]. intros Hpos.
          destruct Ix as [Ix | [Ix | Ix]]; try discriminate; injection Ix as ->; [ | lia ].
          rewrite E, (lin_is_zero_den kv _ Hz), mult_IZR. unfold ang. simpl.
          replace (0 * PI / 12) with 0 by field. ring.
        * destruct (Z.eqb_spec (ts_sign ts) 1) as [H1|H1].
          -- destruct (negb (lin_eqb (ts_rarg ts) arg)).
             ++ specialize (IH f sg (ts_rarg ts) Rr). rewrite E, H1. simpl.
                rewrite Rmult_1_l. exact IH.
             ++ cbn [res_ok]. reflexivity.
          -- assert (ts_sign ts = -1)%Z as Hm1.
             { destruct Hs as [Hs|Hs]; [ contradiction | exact Hs ]. }
             specialize (IH f (- sg)%Z (ts_rarg ts) Rr). rewrite E, Hm1.
             rewrite opp_IZR in IH.
             replace (IZR sg * (-1 * F f (lin_den kv (ts_rarg ts))))
               with (- IZR sg * F f (lin_den kv (ts_rarg ts))) by ring.
             exact IH.
  Qed.

  Lemma as_f1_den arg code a : as_f1 arg = Some (code, a) -> lin_den kv arg = kv (EF1 code a).
  Proof.
    unfold as_f1, lin_den. intros H.
    destruct (lterms arg) as [|[k v] [|p d]]; try discriminate H; destruct k; try discriminate H.
    destruct (num_exact_zero (lcoef arg)) eqn:Hz; simpl in H; try discriminate H.
    destruct v; try discriminate H. destruct (z =? 1)%Z eqn:H1; try discriminate H.
    injection H as <- <-. apply Z.eqb_eq in H1. subst z.
    destruct (num_exact_zero_R _ Hz) as [Z0 _]. rewrite Z0. simpl. ring.
  Qed.

  Lemma ctor_inv_sound rec : rec_ok rec -> rec_ok (ctor_inv rec).
  Proof.
    intros IH f sg arg Hr. unfold ctor_inv.
    destruct (as_f1 arg) as [[code a]|] eqn:Ha; [ | apply ctor_go_sound; assumption ].
    rewrite (as_f1_den _ _ _ Ha).
    destruct (N.eqb_spec code (inv_direct f)) as [->|_].
    - cbn [res_ok]. intros E. rewrite E. reflexivity.
    - destruct (N.eqb_spec code (inv_recip f)) as [->|_].
      + cbn [res_ok]. intros E. rewrite E. reflexivity.
      + rewrite <- (as_f1_den _ _ _ Ha). apply ctor_go_sound; assumption.
  Qed.

  Lemma ctor_step_sound rec : rec_ok rec -> rec_ok (ctor_step rec).
  Proof.
    intros IH f sg arg Hr. unfold ctor_step.
    destruct (lin_is_zero arg) eqn:Hz; [ | apply ctor_inv_sound; assumption ].
    destruct (zero_val f) as [v|] eqn:Hv; [ | apply ctor_inv_sound; assumption ].
    cbn [res_ok]. rewrite (lin_is_zero_den kv _ Hz), mult_IZR.
    destruct f; simpl in Hv; try discriminate; injection Hv as <-; simpl.
    - rewrite sin_0. ring.
    - rewrite cos_0. ring.
    - rewrite tan_0. ring.
  Qed.

  (* every constructor, at any recursion depth *)
  Theorem ctor_sound fuel : rec_ok (ctor fuel).
  Proof.
    induction fuel as [|fuel IH].
    - intros f sg arg _. exact I.
    - intros f sg arg Hr. cbn [ctor]. apply ctor_step_sound; assumption.
  Qed.
End Ctor.

(* the table has period 24 *)
Lemma sin12_mod i : sin12 (i mod 24) = sin12 i.
Proof.
  unfold sin12. rewrite (Z.div_mod i 24) at 2 by lia. rewrite plus_IZR, mult_IZR.
  replace ((24 * IZR (i / 24) + IZR (i mod 24)) * PI / 12) with (IZR (i mod 24) * PI / 12 + 2 * IZR (i / 24) * PI)
    by field.
  symmetry. apply sin_periodZ.
Qed.

Lemma sin12_shift6 i : sin12 ((i + 6) mod 24) = cos (ang i).
Proof.
  rewrite sin12_mod. unfold sin12, ang. rewrite plus_IZR.
  replace ((IZR i + 6) * PI / 12) with (IZR i * PI / 12 + PI / 2) by field. apply sin_half.
Qed.

(* with T = i |-> sin(i*pi/12) the constructors' index arithmetic yields f(i*pi/12) *)
Theorem tab_value_sound f i : (0 <= i < 24)%Z -> tab_value sin12 f i = F f (ang i).
Proof.
  intros _. destruct f; unfold tab_value; simpl F;
    rewrite ?sin12_shift6; unfold sin12, ang, tan, cot, sec, csc; reflexivity.
Qed.
