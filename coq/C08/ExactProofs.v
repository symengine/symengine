(* C08 -- exact evaluation of numbers: floor/ceiling/truncate/sign/abs on Q and Q(i), max/min
   folding, kronecker_delta, eval_levicivita, gamma at integers and half-integers, primepi.
   Axiom-free (QArith / ZArith only). *)
From Coq Require Import QArith Qabs Lia ZArith List Bool.
From SE Require Import Expr.ExprDefs C08.FuncModel C08.GammaProofs.
Import ListNotations.
Local Open Scope Z_scope.
Ltac Zify.zify_post_hook ::= Z.div_mod_to_equations.

Theorem floor_exact n d :
  exists k, floor_num (NRat n d) = Some (NInt k)
            /\ (inject_Z k <= n # d)%Q /\ (n # d < inject_Z k + 1)%Q.
Proof.
  exists (n / Zpos d). split; [ reflexivity | ].
  unfold Qle, Qlt, inject_Z, Qplus. simpl. split; nia.
Qed.

Theorem ceiling_exact n d :
  exists k, ceiling_num (NRat n d) = Some (NInt k)
            /\ (inject_Z k - 1 < n # d)%Q /\ (n # d <= inject_Z k)%Q.
Proof.
  exists (- ((- n) / Zpos d)). split; [ reflexivity | ].
  unfold Qle, Qlt, inject_Z, Qminus, Qplus, Qopp. simpl. split; nia.
Qed.

(* truncation toward zero: floor of a non-negative, ceiling of a negative rational *)
Theorem truncate_exact n d :
  truncate_num (NRat n d) = if 0 <=? n then floor_num (NRat n d) else ceiling_num (NRat n d).
Proof.
  unfold truncate_num, floor_num, ceiling_num.
  destruct (Z.leb_spec 0 n); do 2 f_equal.
  - apply Z.quot_div_nonneg; lia.
  - rewrite <- (Z.opp_involutive n) at 1. rewrite Z.quot_opp_l by lia.
    f_equal. apply Z.quot_div_nonneg; lia.
Qed.

Theorem round_integer_fixed z :
  floor_num (NInt z) = Some (NInt z) /\ ceiling_num (NInt z) = Some (NInt z)
  /\ truncate_num (NInt z) = Some (NInt z).
Proof. repeat split. Qed.

(* a Complex is returned unchanged by all three, whatever its parts (the defect recorded as
   finding C08/floor-cplx): e.g. floor(1/2 + I/3) = 1/2 + I/3 *)
Theorem floor_complex_refuted :
  exists rn rd imn imd,
    floor_num (NCplx rn rd imn imd) = Some (NCplx rn rd imn imd)
    /\ ceiling_num (NCplx rn rd imn imd) = Some (NCplx rn rd imn imd)
    /\ truncate_num (NCplx rn rd imn imd) = Some (NCplx rn rd imn imd)
    /\ ~ (inject_Z (rn / Zpos rd) == rn # rd)%Q.
Proof. exists 1, 2%positive, 1, 3%positive. repeat split. intro H. discriminate H. Qed.

Definition q_of_num (a : number) : Q :=
  match a with NInt z => z # 1 | NRat n d => n # d | _ => 0 end.
Definition is_real_num (a : number) : bool :=
  match a with NInt _ | NRat _ _ => true | _ => false end.

Theorem sign_exact a : is_real_num a = true ->
  exists s, sign_num a = Some (SgNum (NInt s))
            /\ ((0 < q_of_num a)%Q -> s = 1) /\ ((q_of_num a == 0)%Q -> s = 0)
            /\ ((q_of_num a < 0)%Q -> s = -1).
Proof.
  destruct a; simpl; intros H; try discriminate.
  - exists (Z.sgn z). split; [ reflexivity | ]. unfold Qlt, Qeq. simpl. repeat split; lia.
  - exists (Z.sgn n). split; [ reflexivity | ]. unfold Qlt, Qeq. simpl. repeat split; lia.
Qed.

(* purely imaginary numbers: +-I *)
Theorem sign_exact_imaginary imn imd : imn <> 0 ->
  sign_num (NCplx 0 1 imn imd) = Some (SgNum (NCplx 0 1 (Z.sgn imn) 1)).
Proof.
  intros H. unfold sign_num. simpl.
  destruct (Z.ltb_spec 0 imn).
  - rewrite Z.sgn_pos by lia. reflexivity.
  - destruct (Z.ltb_spec imn 0); [ | lia ]. rewrite Z.sgn_neg by lia. reflexivity.
Qed.

(* a Complex with a nonzero real part is wrapped into a Sign object that is_canonical rejects
   (finding C08/sign-cplx): sign(1 + 2 I) *)
Theorem sign_complex_refuted :
  exists a, sign_num a = Some (SgSignOf a) /\ a = NCplx 1 1 2 1.
Proof. exists (NCplx 1 1 2 1). split; reflexivity. Qed.

Theorem abs_exact_real a : is_real_num a = true ->
  exists r, abs_num a = Some (AbsNum r) /\ is_real_num r = true
            /\ (q_of_num r == Qabs (q_of_num a))%Q.
Proof.
  destruct a; simpl; intros H; try discriminate.
  - exists (NInt (Z.abs z)). repeat split.
  - exists (NRat (Z.abs n) d). repeat split.
Qed.

Lemma q_sqrt_exact_spec q r : q_sqrt_exact q = Some r -> (r * r == q)%Q /\ (0 <= r)%Q.
Proof.
  unfold q_sqrt_exact. set (q' := Qred q).
  destruct ((0 <=? Qnum q') && (Z.sqrt (Qnum q') * Z.sqrt (Qnum q') =? Qnum q')
            && (Z.sqrt (Z.pos (Qden q')) * Z.sqrt (Z.pos (Qden q')) =? Z.pos (Qden q'))) eqn:H;
    try discriminate.
  apply andb_prop in H. destruct H as [H H3]. apply andb_prop in H. destruct H as [H1 H2].
  apply Z.leb_le in H1. apply Z.eqb_eq in H2. apply Z.eqb_eq in H3.
  intros E. injection E as <-.
  assert (0 < Z.sqrt (Z.pos (Qden q'))) as Hpos by (apply Z.sqrt_pos; lia).
  set (p := Z.to_pos (Z.sqrt (Z.pos (Qden q')))).
  assert (Hp : Z.pos p = Z.sqrt (Z.pos (Qden q'))) by (unfold p; apply Z2Pos.id; lia).
  assert (Er : (Qred (Z.sqrt (Qnum q') # p) == Z.sqrt (Qnum q') # p)%Q) by apply Qred_correct.
  assert (Eq : (q == q')%Q) by (symmetry; apply Qred_correct).
  split.
  - apply Qeq_trans with ((Z.sqrt (Qnum q') # p) * (Z.sqrt (Qnum q') # p))%Q;
      [ apply Qmult_comp; exact Er | ].
    apply Qeq_trans with q'; [ | apply Qeq_sym; exact Eq ].
    unfold Qeq, Qmult. cbn [Qnum Qden]. rewrite Pos2Z.inj_mul, Hp, H3, H2. reflexivity.
  - apply Qle_trans with (Z.sqrt (Qnum q') # p)%Q.
    + unfold Qle. cbn [Qnum Qden]. pose proof (Z.sqrt_nonneg (Qnum q')). lia.
    + apply Qle_lteq. right. apply Qeq_sym. exact Er.
Qed.

(* |a + b I| : either the exact root r (r*r = a^2 + b^2, r >= 0) or sqrt of that rational *)
Theorem abs_exact_complex rn rd imn imd :
  let s := ((rn # rd) * (rn # rd) + (imn # imd) * (imn # imd))%Q in
  (exists r, abs_num (NCplx rn rd imn imd) = Some (AbsNum (num_of_q r)) /\ (r * r == s)%Q /\ (0 <= r)%Q)
  \/ (exists q, abs_num (NCplx rn rd imn imd) = Some (AbsSqrt q) /\ (q == s)%Q).
Proof.
  intros s. unfold abs_num. fold s.
  destruct (q_sqrt_exact (Qred s)) as [r|] eqn:E.
  - left. exists r. split; [ reflexivity | ]. destruct (q_sqrt_exact_spec _ _ E) as [A B].
    split; [ rewrite A; apply Qred_correct | exact B ].
  - right. exists (Qred s). split; [ reflexivity | apply Qred_correct ].
Qed.

Definition xle (a b : xnum) : Prop :=
  match a, b with
  | XNegInf, _ => True
  | _, XInf => True
  | XQ x, XQ y => (x <= y)%Q
  | _, _ => False
  end.
Definition x_real (a : xnum) : bool := match a with XCplx => false | _ => true end.

Lemma xle_refl a : x_real a = true -> xle a a.
Proof. destruct a; simpl; intros; try discriminate; auto. apply Qle_refl. Qed.

Lemma xle_trans a b c : xle a b -> xle b c -> xle a c.
Proof.
  destruct a, b, c; simpl; intros; auto; try contradiction. eapply Qle_trans; eauto.
Qed.

Lemma qlt_spec a b : qlt a b = true <-> (a < b)%Q.
Proof.
  unfold qlt. rewrite Bool.negb_true_iff. split; intros H.
  - apply Qnot_le_lt. intro L. apply Qle_bool_iff in L. congruence.
  - destruct (Qle_bool b a) eqn:E; auto. apply Qle_bool_iff in E. exfalso. apply (Qlt_not_le _ _ H E).
Qed.

Lemma qlt_false a b : qlt a b = false -> (b <= a)%Q.
Proof.
  unfold qlt. rewrite Bool.negb_false_iff. apply Qle_bool_iff.
Qed.

(* Max and Min are mirror images; [dir = true] is Max.  Exchanged between the two: the argument that ends the fold
   and the one that is skipped, the side on which the result bounds the arguments, and the operands of the test that
   replaces the running value. *)
Definition dloop (dir : bool) : xnum -> list xnum -> foldres := if dir then max_loop else min_loop.
Definition dtop (dir : bool) : xnum := if dir then XInf else XNegInf.
Definition dbot (dir : bool) : xnum := if dir then XNegInf else XInf.
Definition dle (dir : bool) (a b : xnum) : Prop := if dir then xle a b else xle b a.
Definition dsub (dir : bool) (p cur : xnum) : bool := if dir then xnum_sub_pos p cur else xnum_sub_pos cur p.
Definition dpick (dir : bool) (p cur : xnum) : xnum := if dsub dir p cur then p else cur.

Lemma dloop_cons dir cur p r : x_real p = true ->
  (p = dtop dir /\ dloop dir cur (p :: r) = FoldOk p)
  \/ (p = dbot dir /\ dloop dir cur (p :: r) = dloop dir cur r)
  \/ dloop dir cur (p :: r) = dloop dir (dpick dir p cur) r.
Proof. destruct dir, p; intros H; try discriminate; simpl; auto. Qed.

Lemma dle_top dir x : dle dir x (dtop dir).
Proof. destruct dir, x; exact Logic.I. Qed.
Lemma dle_bot dir x : dle dir (dbot dir) x.
Proof. destruct dir, x; exact Logic.I. Qed.
Lemma dle_refl dir a : x_real a = true -> dle dir a a.
Proof. destruct dir; apply xle_refl. Qed.
Lemma dle_trans dir a b c : dle dir a b -> dle dir b c -> dle dir a c.
Proof. destruct dir; intros H1 H2; [exact (xle_trans _ _ _ H1 H2) | exact (xle_trans _ _ _ H2 H1)]. Qed.

(* (a - b).is_positive() decides the order of two real arguments *)
Lemma dsub_true dir p cur : dsub dir p cur = true -> dle dir cur p.
Proof. destruct dir, p, cur; simpl; intros H; try discriminate; auto; apply Qlt_le_weak, qlt_spec, H. Qed.
Lemma dsub_false dir p cur : x_real p = true -> x_real cur = true -> dsub dir p cur = false -> dle dir p cur.
Proof. destruct dir, p, cur; simpl; intros Hp Hc H; try discriminate; auto; apply qlt_false, H. Qed.

(* the new running value is one of the two and bounds both *)
Lemma dpick_spec dir p cur : x_real p = true -> x_real cur = true ->
  (dpick dir p cur = p \/ dpick dir p cur = cur) /\ dle dir cur (dpick dir p cur) /\ dle dir p (dpick dir p cur).
Proof.
  intros Hp Hc. unfold dpick. destruct (dsub dir p cur) eqn:C.
  - split; [left; reflexivity|]. split; [exact (dsub_true _ _ _ C) | apply dle_refl; exact Hp].
  - split; [right; reflexivity|]. split; [apply dle_refl; exact Hc | exact (dsub_false _ _ _ Hp Hc C)].
Qed.

Lemma dloop_sound dir l : forall cur, x_real cur = true -> forallb x_real l = true ->
  exists m, dloop dir cur l = FoldOk m /\ In m (cur :: l) /\ forall x, In x (cur :: l) -> dle dir x m.
Proof.
  induction l as [|p l IH]; intros cur Hc Hl.
  - exists cur. split; [destruct dir; reflexivity|]. split; [left; reflexivity|].
    intros x [<-|[]]. apply dle_refl. exact Hc.
  - simpl in Hl. apply andb_prop in Hl. destruct Hl as [Hp Hl].
    destruct (dloop_cons dir cur p l Hp) as [[-> E] | [[-> E] | E]]; rewrite E.
    + (* the argument that ends the fold *)
      exists (dtop dir). split; [reflexivity|]. split; [right; left; reflexivity|]. intros x _. apply dle_top.
    + (* the argument that is skipped *)
      destruct (IH cur Hc Hl) as (m & Em & Im & M). exists m. split; [exact Em|]. split.
      * destruct Im as [Im|Im]; [left; exact Im | right; right; exact Im].
      * intros x [<-|[<-|Hx]]; [apply M; left; reflexivity | apply dle_bot | apply M; right; exact Hx].
    + destruct (dpick_spec dir p cur Hp Hc) as (Pk & L1 & L2).
      assert (Hc' : x_real (dpick dir p cur) = true) by (destruct Pk as [-> | ->]; assumption).
      destruct (IH _ Hc' Hl) as (m & Em & Im & M). exists m. split; [exact Em|]. split.
      * destruct Im as [Im|Im]; [|right; right; exact Im].
        destruct Pk as [Pk|Pk]; rewrite Pk in Im; [right; left; exact Im | left; exact Im].
      * intros x [<-|[<-|Hx]].
        -- apply (dle_trans dir _ _ _ L1), M. left. reflexivity.
        -- apply (dle_trans dir _ _ _ L2), M. left. reflexivity.
        -- apply M. right. exact Hx.
Qed.

(* max of Number arguments (no Complex among them): an element of the list that bounds all *)
Theorem max_fold_sound l : l <> [] -> forallb x_real l = true ->
  exists m, max_fold l = FoldOk m /\ In m l /\ forall x, In x l -> xle x m.
Proof.
  destruct l as [|x l]; [ congruence | ]. intros _ H. simpl in H. apply andb_prop in H.
  destruct H as [Hx Hl]. unfold max_fold.
  destruct x; try discriminate; apply (dloop_sound true); auto.
Qed.

Theorem min_fold_sound l : l <> [] -> forallb x_real l = true ->
  exists m, min_fold l = FoldOk m /\ In m l /\ forall x, In x l -> xle m x.
Proof.
  destruct l as [|x l]; [ congruence | ]. intros _ H. simpl in H. apply andb_prop in H.
  destruct H as [Hx Hl]. unfold min_fold.
  destruct x; try discriminate; apply (dloop_sound false); auto.
Qed.

(* a Complex argument met before the fold ends throws *)
Theorem max_fold_complex_first l : max_fold (XCplx :: l) = FoldThrow /\ min_fold (XCplx :: l) = FoldThrow.
Proof. split; reflexivity. Qed.

Theorem kronecker_exact i j :
  ((i == j)%Q -> kronecker_q i j = 1) /\ (~ (i == j)%Q -> kronecker_q i j = 0).
Proof.
  unfold kronecker_q. destruct (Qeq_bool i j) eqn:E.
  - apply Qeq_bool_iff in E. split; auto. intros N. contradiction.
  - split; auto. intros H. apply Qeq_bool_iff in H. congruence.
Qed.

(* schoolbook definition on index lists: 0 when an index repeats, otherwise (-1)^inversions *)
Fixpoint count_gt (x : Z) (l : list Z) : nat :=
  match l with [] => O | y :: r => ((if (y <? x)%Z then 1 else 0) + count_gt x r)%nat end.
Fixpoint inversions (l : list Z) : nat :=
  match l with [] => O | x :: r => (count_gt x r + inversions r)%nat end.
Fixpoint has_dup_z (l : list Z) : bool :=
  match l with [] => false | x :: r => existsb (Z.eqb x) r || has_dup_z r end.
Definition levi_spec (l : list Z) : Z :=
  if has_dup_z l then 0 else if Nat.even (inversions l) then 1 else -1.

(* all lists of length k over {0..n-1} *)
Fixpoint all_lists (n : nat) (k : nat) : list (list Z) :=
  match k with
  | O => [[]]
  | S k' => flat_map (fun l => map (fun v => Z.of_nat v :: l) (seq 0 n)) (all_lists n k')
  end.
Definition levi_agrees (l : list Z) : bool :=
  Qeq_bool (levi_eval (map inject_Z l)) (inject_Z (levi_spec l)).

(* a loop that multiplies the accumulator by h x and normalises computes the product of the h x *)
Lemma fold_left_scale {A} (f : Q -> A -> Q) (h : A -> Q) :
  (forall q x, f q x == h x * q)%Q ->
  forall l q, (fold_left f l q == q * fold_right (fun x p => h x * p) 1 l)%Q.
Proof.
  intros H. induction l as [|x l IH]; intros q; cbn [fold_left fold_right]; [ring|].
  rewrite IH, H. ring.
Qed.

Lemma prod_inject_Z {A} (r : A -> Z) l :
  (fold_right (fun x p => inject_Z (r x) * p) 1 l == inject_Z (fold_right (fun x p => r x * p)%Z 1%Z l))%Q.
Proof.
  induction l as [|x l IH]; cbn [fold_right]; [reflexivity|]. rewrite IH, inject_Z_mult. reflexivity.
Qed.
Lemma prod_inject_Z_div {A} (r c : A -> Z) l :
  (fold_right (fun x p => inject_Z (r x) / inject_Z (c x) * p) 1 l
   == inject_Z (fold_right (fun x p => r x * p)%Z 1%Z l) / inject_Z (fold_right (fun x p => c x * p)%Z 1%Z l))%Q.
Proof.
  induction l as [|x l IH]; cbn [fold_right]; [reflexivity|].
  rewrite IH, !inject_Z_mult. unfold Qdiv. rewrite Qinv_mult_distr. ring.
Qed.

(* on integers levi_eval is the Vandermonde product over the product of the factorials *)
Definition vdm_row (l : list Z) (i : nat) : Z :=
  fold_right (fun j p => (nth j l 0 - nth i l 0) * p) 1 (seq (S i) (length l - S i)).
Definition vdm (l : list Z) : Z := fold_right (fun i p => vdm_row l i * p) 1 (seq 0 (length l)).
Definition superfact (n : nat) : Z := fold_right (fun i p => fact_nat i * p) 1 (seq 0 n).

Lemma levi_inner_Z l i q : (levi_inner (map inject_Z l) i q == inject_Z (vdm_row l i) * q)%Q.
Proof.
  unfold levi_inner, vdm_row. rewrite map_length.
  rewrite (fold_left_scale _ (fun j => inject_Z (nth j l 0 - nth i l 0))).
  - rewrite prod_inject_Z. ring.
  - intros acc j. rewrite Qred_correct. change (0 # 1)%Q with (inject_Z 0). rewrite !map_nth.
    unfold Z.sub. rewrite inject_Z_plus, inject_Z_opp. reflexivity.
Qed.

Theorem levi_eval_Z l :
  (levi_eval (map inject_Z l) == inject_Z (vdm l) / inject_Z (superfact (length l)))%Q.
Proof.
  unfold levi_eval, vdm, superfact. rewrite map_length.
  rewrite (fold_left_scale _ (fun i => inject_Z (vdm_row l i) / inject_Z (fact_nat i))%Q).
  - rewrite prod_inject_Z_div. ring.
  - intros q i. rewrite Qred_correct, levi_inner_Z. unfold Qdiv. ring.
Qed.

(* [levi_agrees] decided in Z *)
Definition levi_agrees_Z (l : list Z) : bool :=
  (vdm l =? levi_spec l * superfact (length l)) && negb (superfact (length l) =? 0).

Lemma levi_agrees_Z_ok l : levi_agrees_Z l = true -> levi_agrees l = true.
Proof.
  intros H. apply andb_prop in H. destruct H as [E N].
  apply Z.eqb_eq in E. apply negb_true_iff, Z.eqb_neq in N.
  apply Qeq_bool_iff. rewrite levi_eval_Z, E, inject_Z_mult. field. exact (injZ_nz _ N).
Qed.

(* a repeated index makes one factor of the Vandermonde product zero *)
Lemma prod_zero {A} (h : A -> Z) l x : In x l -> h x = 0 -> fold_right (fun x p => h x * p) 1 l = 0.
Proof.
  intros Hx E. induction l as [|y l IH]; [contradiction|]. cbn [fold_right].
  destruct Hx as [->|Hx]; [rewrite E | rewrite (IH Hx)]; ring.
Qed.

Lemma vdm_dup l i j : (i < j < length l)%nat -> nth j l 0 = nth i l 0 -> vdm l = 0.
Proof.
  intros H E. apply (prod_zero _ _ i); [apply in_seq; lia|].
  apply (prod_zero _ _ j); [apply in_seq; lia | lia].
Qed.

Lemma has_dup_z_nth l : has_dup_z l = true ->
  exists i j, (i < j < length l)%nat /\ nth j l 0 = nth i l 0.
Proof.
  induction l as [|x r IH]; [discriminate|]. cbn [has_dup_z]. intros H.
  apply orb_prop in H. destruct H as [H|H].
  - apply existsb_exists in H. destruct H as (y & Hy & E). apply Z.eqb_eq in E. subst y.
    destruct (In_nth _ _ 0 Hy) as (j & Hj & E). exists 0%nat, (S j). cbn [nth length]. split; [lia | exact E].
  - destruct (IH H) as (i & j & Hij & E). exists (S i), (S j). cbn [nth length]. split; [lia | exact E].
Qed.

Lemma levi_agrees_dup l : has_dup_z l = true -> levi_agrees l = true.
Proof.
  intros H. unfold levi_agrees, levi_spec. rewrite H. apply Qeq_bool_iff.
  destruct (has_dup_z_nth l H) as (i & j & Hij & E).
  rewrite levi_eval_Z, (vdm_dup l i j Hij E). unfold Qdiv. ring.
Qed.

(* the lists of [all_lists n k] without a repeated entry, built without the others *)
Fixpoint inj_lists (n : nat) (k : nat) : list (list Z) :=
  match k with
  | O => [[]]
  | S k' => flat_map (fun l => map (fun v => Z.of_nat v :: l)
                                   (filter (fun v => negb (existsb (Z.eqb (Z.of_nat v)) l)) (seq 0 n)))
                     (inj_lists n k')
  end.

Lemma all_lists_inj n : forall k l, In l (all_lists n k) -> has_dup_z l = false -> In l (inj_lists n k).
Proof.
  induction k as [|k IH]; cbn [all_lists inj_lists]; intros l Hl Hd; [exact Hl|].
  apply in_flat_map in Hl. destruct Hl as (l' & Hl' & Hv).
  apply in_map_iff in Hv. destruct Hv as (v & <- & Hv).
  cbn [has_dup_z] in Hd. apply orb_false_elim in Hd. destruct Hd as [D1 D2].
  apply in_flat_map. exists l'. split; [exact (IH l' Hl' D2)|].
  apply (in_map (fun v => Z.of_nat v :: l')), filter_In. split; [exact Hv | rewrite D1; reflexivity].
Qed.

(* the index universes {0..n-1}^n, n <= 6 (1+1+4+27+256+3125+46656 lists): a list with a repeated index by
   [levi_agrees_dup]; the 1+1+2+6+24+120+720 others are evaluated, in Z *)
Theorem levi_civita_exact :
  forallb (fun n => forallb levi_agrees (all_lists n n)) (seq 0 7) = true.
Proof.
  assert (S : forallb (fun n => forallb levi_agrees_Z (inj_lists n n)) (seq 0 7) = true) by (vm_compute; reflexivity).
  rewrite forallb_forall in *. intros n Hn. specialize (S n Hn).
  rewrite forallb_forall in *. intros l Hl.
  destruct (has_dup_z l) eqn:D; [exact (levi_agrees_dup l D) | exact (levi_agrees_Z_ok l (S l (all_lists_inj n n l Hl D)))].
Qed.

Theorem gamma_int_exact :
  gamma_int 1 = Some 1
  /\ (forall n, 0 < n -> exists g, gamma_int n = Some g /\ gamma_int (n + 1) = Some (n * g))
  /\ (forall n, n <= 0 -> gamma_int n = None).
Proof.
  split; [ reflexivity | ]. split.
  - intros n H. unfold gamma_int.
    destruct (Z.ltb_spec 0 n); [ | lia ]. destruct (Z.ltb_spec 0 (n + 1)); [ | lia ].
    eexists. split; [ reflexivity | ].
    replace (n + 1 - 1) with n by lia.
    replace (Z.to_nat n) with (S (Z.to_nat (n - 1))) by lia.
    cbn [fact_nat]. f_equal. f_equal. lia.
  - intros n H. unfold gamma_int. destruct (Z.ltb_spec 0 n); [ lia | reflexivity ].
Qed.

(* half-integers: the functional equation Gamma(x+1) = x Gamma(x) at x = k/2 together with
   Gamma(1/2) = sqrt(pi) (coefficient 1) determines the coefficient of sqrt(pi): the closed form
   of gamma_multiple_2 satisfies both for every odd k (GammaProofs.v); here as a test on -59 <= k <= 59 *)
Definition gamma_half_step_with (mul : Z -> Z -> Z) (k : Z) : bool :=
  Qeq_bool (gamma_half_with mul (k + 2)) ((k # 2) * gamma_half_with mul k).
Definition gamma_half_step (k : Z) : bool := gamma_half_step_with Z.mul k.
Definition odd_range (lo : Z) (count : nat) : list Z := map (fun i => lo + 2 * Z.of_nat i) (seq 0 count).

Theorem gamma_half_exact :
  Qeq_bool (gamma_half 1) 1 = true
  /\ forallb gamma_half_step (odd_range (-59) 59) = true.
Proof.
  destruct gamma_half_exact_all as [H1 Hstep]. split; [apply Qeq_bool_iff, H1|].
  apply forallb_forall. intros k Hk. apply in_map_iff in Hk. destruct Hk as (i & <- & _).
  apply Qeq_bool_iff, Hstep. rewrite Z.odd_add_mul_2. reflexivity.
Qed.

(* for the record: the 32-bit product of the code before the repair broke the equation at 21/2 *)
Theorem gamma_half_int32_refuted :
  gamma_half_step_with jmul 21 = false /\ gamma_half_step_with jmul (-21) = false.
Proof. split; vm_compute; reflexivity. Qed.

Lemma no_divisor_spec fuel : forall d p, 2 <= d -> (Z.to_nat p <= fuel + Z.to_nat d)%nat ->
  (no_divisor fuel d p = true <-> forall e, d <= e -> e * e <= p -> p mod e <> 0).
Proof.
  induction fuel as [|fuel IH]; intros d p Hd Hf.
  - simpl. split; auto. intros _ e He Hee. nia.
  - cbn [no_divisor]. destruct (Z.ltb_spec p (d * d)) as [A|A].
    + split; auto. intros _ e He Hee. nia.
    + destruct (Z.eqb_spec (p mod d) 0) as [B|B].
      * split; [ discriminate | ]. intros H. exfalso. apply (H d); auto. lia.
      * rewrite IH by lia. split.
        -- intros H e He Hee. destruct (Z.eq_dec e d) as [->|Ne]; auto. apply H; auto. lia.
        -- intros H e He Hee. apply H; auto. lia.
Qed.

(* trial division up to the square root decides "no proper divisor >= 2" *)
Theorem is_prime_spec p :
  is_prime p = true <-> (2 <= p /\ forall e, 2 <= e -> e * e <= p -> p mod e <> 0).
Proof.
  unfold is_prime. rewrite Bool.andb_true_iff, Z.leb_le.
  split; intros [A B]; split; auto.
  - apply (no_divisor_spec (Z.to_nat p) 2 p); auto; lia.
  - apply (no_divisor_spec (Z.to_nat p) 2 p); auto; lia.
Qed.

(* below 2^32 primepi counts the primes up to n; negative arguments give 0; larger arguments are
   rejected (they were truncated to 32 bits before the repair) *)
Theorem primepi_exact n :
  (n < 0 -> primepi_int n = PPOk 0)
  /\ (0 <= n < 4294967296 -> primepi_int n = PPOk (Z.of_nat (length (primes_upto n))))
  /\ (4294967296 <= n -> primepi_int n = PPTooLarge \/ primepi_int n = PPOverflow).
Proof.
  unfold primepi_int. repeat split; intros H.
  - destruct (Z.ltb_spec n 0); [ reflexivity | lia ].
  - destruct (Z.ltb_spec n 0); [ lia | ].
    destruct (Z.ltb_spec 18446744073709551615 n); [ lia | ].
    destruct (Z.ltb_spec 4294967295 n); [ lia | reflexivity ].
  - destruct (Z.ltb_spec n 0); [ lia | ].
    destruct (Z.ltb_spec 18446744073709551615 n); [ auto | ].
    destruct (Z.ltb_spec 4294967295 n); [ auto | lia ].
Qed.

Theorem primorial_exact n :
  (0 < n -> primorial_int n = Some (fold_left Z.mul (primes_upto n) 1))
  /\ (n <= 0 -> primorial_int n = None).
Proof.
  unfold primorial_int. split; intros H.
  - destruct (Z.ltb_spec 0 n); [ reflexivity | lia ].
  - destruct (Z.ltb_spec 0 n); [ lia | reflexivity ].
Qed.
