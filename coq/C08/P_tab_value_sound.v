(* C08 obligation: the index arithmetic of the constructors on the sine table
   (T[i], T[(i+6) mod 24], quotients, reciprocals) yields f(i*pi/12) when T[i] = sin(i*pi/12). *)
From Coq Require Import Rdefinitions.
From SE Require Import C08.FuncModel C08.FuncSpec C08.CtorProofs.
Theorem C08_tab_value_sound :
  forall (f : trigfn) (i : Z), (0 <= i < 24)%Z -> tab_value sin12 f i = F f (ang i).
Proof. exact tab_value_sound. Qed.
Print Assumptions C08_tab_value_sound.
