(* C08 obligation: abs of exact numbers. *)
From Coq Require Import Qabs.
From SE Require Import Expr.ExprDefs C08.FuncModel C08.ExactProofs.
Theorem C08_abs_exact :
  (forall a, is_real_num a = true ->
     exists r, abs_num a = Some (AbsNum r) /\ is_real_num r = true
               /\ (q_of_num r == Qabs (q_of_num a))%Q)
  /\ (forall rn rd imn imd,
       let s := ((rn # rd) * (rn # rd) + (imn # imd) * (imn # imd))%Q in
       (exists r, abs_num (NCplx rn rd imn imd) = Some (AbsNum (num_of_q r))
                  /\ (r * r == s)%Q /\ (0 <= r)%Q)
       \/ (exists q, abs_num (NCplx rn rd imn imd) = Some (AbsSqrt q) /\ (q == s)%Q)).
Proof. split; [ exact abs_exact_real | exact abs_exact_complex ]. Qed.
Print Assumptions C08_abs_exact.
