(* C08 -- gamma at half-integers: the coefficient of sqrt(pi) computed by gamma_multiple_2 satisfies
   the functional equation Gamma(x+1) = x Gamma(x) at every half-integer x = k/2 (unbounded k). *)
From Coq Require Import QArith ZArith Lia Qfield.
From SE Require Import C08.FuncModel.
Local Open Scope Z_scope.
Ltac Zify.zify_post_hook ::= Z.div_mod_to_equations.

Notation L := (dfact_loop Z.mul).

Lemma L_S f i b j : L (S f) i b j = if i <? b then L f (i + 2) b (j * i) else j.
Proof. reflexivity. Qed.

Lemma L_done f i b j : b <= i -> L f i b j = j.
Proof.
  intros H. destruct f; [ reflexivity | ]. rewrite L_S.
  destruct (Z.ltb_spec i b); [ lia | reflexivity ].
Qed.

Lemma L_extend : forall f a c j, a <= c -> c - a <= Z.of_nat f ->
  L (S f) (2 * a + 1) (2 * c + 2) j = L f (2 * a + 1) (2 * c) j * (2 * c + 1).
Proof.
  induction f as [|f IH]; intros a c j Hac Hf.
  - assert (a = c) by lia. subst a. rewrite L_S.
    replace (2 * c + 1 <? 2 * c + 2) with true by (symmetry; apply Z.ltb_lt; lia).
    reflexivity.
  - rewrite (L_S (S f)).
    replace (2 * a + 1 <? 2 * c + 2) with true by (symmetry; apply Z.ltb_lt; lia).
    rewrite (L_S f (2 * a + 1) (2 * c)).
    destruct (Z.ltb_spec (2 * a + 1) (2 * c)).
    + replace (2 * a + 1 + 2) with (2 * (a + 1) + 1) by ring.
      apply IH; lia.
    + assert (a = c) by lia. subst a.
      rewrite L_done by lia. reflexivity.
Qed.

Lemma L_pos : forall f i b j, 0 < i -> 0 < j -> 0 < L f i b j.
Proof.
  induction f as [|f IH]; intros i b j Hi Hj; [ exact Hj | ].
  rewrite L_S. destruct (i <? b); [ apply IH; nia | exact Hj ].
Qed.

Definition D (n : Z) : Z := L (Z.to_nat n) 3 (2 * n) 1.

Lemma D_succ n : 0 <= n -> D (n + 1) = D n * (2 * n + 1).
Proof.
  intros H. destruct (Z.eq_dec n 0) as [-> | Hn]; [ reflexivity | ].
  unfold D. replace (Z.to_nat (n + 1)) with (S (Z.to_nat n)) by lia.
  replace (2 * (n + 1)) with (2 * n + 2) by ring.
  change 3 with (2 * 1 + 1). apply L_extend; lia.
Qed.

Lemma D_pos n : 0 < D n.
Proof. unfold D. apply L_pos; lia. Qed.

Definition G (k : Z) : Q := gamma_half_with Z.mul k.
Definition c0 (m : Z) : Z := if Z.even m then 1 else -1.

Lemma G_pos n : 0 <= n -> (G (2 * n + 1) == inject_Z (D n) / inject_Z (2 ^ n))%Q.
Proof.
  intros H. unfold G, gamma_half_with.
  replace (0 <? 2 * n + 1) with true by (symmetry; apply Z.ltb_lt; lia).
  replace (Z.abs (2 * n + 1) / 2) with n by lia.
  rewrite Qred_correct. rewrite Z.mul_1_l. reflexivity.
Qed.

Lemma G_neg m : 1 <= m -> (G (- (2 * m - 1)) == inject_Z (2 ^ m) / inject_Z (c0 m * D m))%Q.
Proof.
  intros H. unfold G, gamma_half_with.
  replace (0 <? - (2 * m - 1)) with false by (symmetry; apply Z.ltb_ge; lia).
  replace (Z.abs (- (2 * m - 1)) / 2 + 1) with m by lia.
  rewrite Qred_correct. reflexivity.
Qed.

Lemma injZ_nz z : z <> 0 -> ~ (inject_Z z == 0)%Q.
Proof. intros H E. unfold Qeq in E. simpl in E. lia. Qed.

Lemma pow2_nz n : 0 <= n -> ~ (inject_Z (2 ^ n) == 0)%Q.
Proof. intros H. apply injZ_nz. pose proof (Z.pow_pos_nonneg 2 n ltac:(lia) H). lia. Qed.

Theorem gamma_half_step_all k : Z.odd k = true ->
  (G (k + 2) == (k # 2) * G k)%Q.
Proof.
  intros Hodd. apply Z.odd_spec in Hodd. destruct Hodd as [n ->].
  destruct (Z_le_gt_dec 0 n) as [Hn | Hn].
  - (* k = 2n+1 >= 1 *)
    replace (2 * n + 1 + 2) with (2 * (n + 1) + 1) by ring.
    rewrite (G_pos (n + 1)) by lia. rewrite (G_pos n) by lia.
    rewrite (D_succ n Hn). rewrite Z.pow_add_r by lia. rewrite (Qmake_Qdiv (2 * n + 1) 2).
    rewrite !inject_Z_mult.
    pose proof (pow2_nz n Hn). change (inject_Z (2 ^ 1)) with (inject_Z 2). change (inject_Z (Z.pos 2)) with (inject_Z 2).
    field; repeat split; try assumption; try (intro Z2; discriminate Z2).
  - destruct (Z.eq_dec n (-1)) as [-> | Hn1].
    + vm_compute. reflexivity.
    + (* k = -(2m-1), m >= 2 *)
      set (m := - n).
      replace (2 * n + 1) with (- (2 * m - 1)) by (unfold m; ring).
      replace (- (2 * m - 1) + 2) with (- (2 * (m - 1) - 1)) by ring.
      rewrite (G_neg (m - 1)) by (unfold m; lia). rewrite (G_neg m) by (unfold m; lia).
      assert (Hm : 0 <= m - 1) by (unfold m; lia).
      replace (D m) with (D (m - 1) * (2 * (m - 1) + 1)) by (rewrite <- (D_succ (m - 1) Hm); f_equal; ring).
      assert (Hp2 : 2 ^ m = 2 ^ (m - 1) * 2).
      { replace m with (Z.succ (m - 1)) at 1 by lia. rewrite Z.pow_succ_r by lia. ring. }
      rewrite Hp2.
      assert (Hc : c0 m = - c0 (m - 1)).
      { unfold c0. replace m with (Z.succ (m - 1)) at 1 by lia. rewrite Z.even_succ, <- Z.negb_even.
        destruct (Z.even (m - 1)); reflexivity. }
      rewrite Hc. rewrite (Qmake_Qdiv (- (2 * m - 1)) 2).
      assert (Hc1 : c0 (m - 1) <> 0) by (unfold c0; destruct (Z.even (m - 1)); lia).
      pose proof (D_pos (m - 1)) as HD.
      pose proof (pow2_nz (m - 1) Hm) as HP.
      rewrite ?inject_Z_mult, ?inject_Z_opp, ?inject_Z_mult.
      change (inject_Z (Z.pos 2)) with (inject_Z 2).
      assert (H1 : ~ (inject_Z (c0 (m - 1)) == 0)%Q) by (apply injZ_nz; exact Hc1).
      assert (H2 : ~ (inject_Z (D (m - 1)) == 0)%Q) by (apply injZ_nz; lia).
      assert (H3 : ~ (inject_Z (2 * (m - 1) + 1) == 0)%Q) by (apply injZ_nz; unfold m; lia).
      replace (2 * m - 1) with (2 * (m - 1) + 1) by ring.
      field; repeat split; try assumption; try (intro Z2; discriminate Z2).
Qed.

Theorem gamma_half_exact_all :
  (gamma_half 1 == 1)%Q
  /\ forall k, Z.odd k = true -> (gamma_half (k + 2) == (k # 2) * gamma_half k)%Q.
Proof. split; [ vm_compute; reflexivity | exact gamma_half_step_all ]. Qed.
