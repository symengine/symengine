(* C08 -- soundness of trig_simplify and of the six constructors over R. *)
From Coq Require Import Reals QArith Qreals Lra Lia ZArith.
From SE Require Import Expr.ExprDefs Expr.Cmp C08.FuncModel C08.FuncSpec C08.TrigIdent C08.TrigArith.
Local Open Scope R_scope.

Lemma numR_opp a : num_real a = true -> numR (num_opp a) = - numR a.
Proof.
  destruct a; simpl; intros H; try discriminate.
  - apply opp_IZR.
  - unfold Q2R. simpl. rewrite opp_IZR. ring.
Qed.

Lemma num_real_opp a : num_real (num_opp a) = num_real a.
Proof. destruct a; reflexivity. Qed.

Lemma numR_as_q v q : num_as_q v = Some q -> numR v = Q2R q /\ num_real v = true.
Proof.
  destruct v; simpl; intros H; inversion H; subst; split; auto. symmetry. apply Q2R_int.
Qed.

Lemma numR_of_q q : numR (num_of_q q) = Q2R q /\ num_real (num_of_q q) = true.
Proof.
  unfold num_of_q. rewrite <- (Q2R_Qred q). destruct (Qred q) as [a b]. cbn [Qnum Qden].
  destruct (Pos.eqb_spec b 1) as [->|_].
  - split; auto. simpl. symmetry. apply Q2R_int.
  - split; reflexivity.
Qed.

Lemma num_exact_zero_R c : num_exact_zero c = true -> numR c = 0 /\ num_real c = true.
Proof.
  destruct c; simpl; intros H; try discriminate. apply Z.eqb_eq in H. subst. split; reflexivity.
Qed.

Section WithKv.
  Variable kv : expr -> R.
  Hypothesis Hkv : kv_ok kv.

  Lemma terms_den_app d1 d2 : terms_den kv (d1 ++ d2) = terms_den kv d1 + terms_den kv d2.
  Proof. induction d1; simpl; [ ring | rewrite IHd1; ring ]. Qed.

  Definition terms_real (d : list (expr * number)) : bool :=
    forallb (fun p => num_real (snd p) && key_real (fst p)) d.

  Lemma take_pi_spec d q r :
    take_pi d = Some (q, r) -> terms_real d = true ->
    terms_den kv d = terms_den kv r + Q2R q * PI /\ terms_real r = true.
  Proof.
    revert q r. induction d as [|[k v] d IH]; intros q r H Hr; simpl in H; try discriminate.
    simpl in Hr. apply andb_prop in Hr. destruct Hr as [Hkv1 Hd].
    destruct (is_pi k) eqn:Hp.
    - destruct (num_as_q v) eqn:Hq; try discriminate. inversion H; subst.
      destruct (numR_as_q _ _ Hq) as [E _]. simpl. rewrite (kv_pi kv Hkv k Hp), E.
      split; [ ring | exact Hd ].
    - destruct (take_pi d) as [[q' r']|] eqn:Ht; try discriminate. inversion H; subst.
      destruct (IH _ _ eq_refl Hd) as [E Hr']. simpl. rewrite E.
      split; [ ring | rewrite Hkv1, Hr'; reflexivity ].
  Qed.

  Lemma lin_real_split l : lin_real l = true -> num_real (lcoef l) = true /\ terms_real (lterms l) = true.
  Proof. unfold lin_real, terms_real. intros H. apply andb_prop in H. exact H. Qed.

  Lemma lin_real_join c d : num_real c = true -> terms_real d = true -> lin_real (mkLin c d) = true.
  Proof. unfold lin_real, terms_real. simpl. intros -> ->. reflexivity. Qed.

  Lemma get_pi_shift_spec l n r :
    get_pi_shift l = Some (n, r) -> lin_real l = true ->
    lin_den kv l = lin_den kv r + Q2R n * PI /\ lin_real r = true.
  Proof.
    unfold get_pi_shift. intros H Hr. destruct (lin_real_split _ Hr) as [Hc Ht].
    destruct (lterms l) as [|p d] eqn:El.
    - destruct (num_exact_zero (lcoef l)); try discriminate. inversion H; subst.
      split; [ | exact Hr ]. unfold Q2R. simpl. ring.
    - destruct (take_pi (p :: d)) as [[q r']|] eqn:Ht'; try discriminate. inversion H; subst.
      destruct (take_pi_spec _ _ _ Ht' Ht) as [E Hr'].
      split.
      + unfold lin_den. rewrite El. simpl lcoef. simpl lterms. rewrite E. ring.
      + apply lin_real_join; assumption.
  Qed.

  Lemma terms_den_neg d : terms_real d = true ->
    terms_den kv (map (fun p => (fst p, num_opp (snd p))) d) = - terms_den kv d
    /\ terms_real (map (fun p => (fst p, num_opp (snd p))) d) = true.
  Proof.
    induction d as [|[k v] d IH]; simpl; intros H.
    - split; [ ring | reflexivity ].
    - apply andb_prop in H. destruct H as [H1 H2]. apply andb_prop in H1. destruct H1 as [Hv Hk].
      destruct (IH H2) as [E R']. rewrite E, (numR_opp _ Hv), num_real_opp, Hv, Hk, R'.
      split; [ ring | reflexivity ].
  Qed.

  Lemma lin_neg_spec l : lin_real l = true ->
    lin_den kv (lin_neg l) = - lin_den kv l /\ lin_real (lin_neg l) = true.
  Proof.
    intros H. destruct (lin_real_split _ H) as [Hc Ht].
    destruct (terms_den_neg _ Ht) as [E R'].
    unfold lin_neg, lin_den. simpl. rewrite E, (numR_opp _ Hc).
    split; [ ring | apply lin_real_join; [ rewrite num_real_opp; exact Hc | exact R' ] ].
  Qed.

  Lemma is_minus_one_R v : is_minus_one v = true -> numR v = -1.
  Proof.
    destruct v; simpl; intros H; try discriminate. apply Z.eqb_eq in H. subst. reflexivity.
  Qed.

  (* handle_minus returns the argument or its negation, as its flag says *)
  Lemma handle_minus_spec l b l' :
    handle_minus l = (b, l') -> lin_real l = true ->
    lin_den kv l' = (if b then - lin_den kv l else lin_den kv l) /\ lin_real l' = true.
  Proof.
    intros H Hr.
    assert (G2 : forall (c : bool) b0 l0, (if c then (true, lin_neg l) else (false, l)) = (b0, l0) ->
              lin_den kv l0 = (if b0 then - lin_den kv l else lin_den kv l) /\ lin_real l0 = true).
    { intros c b0 l0 E. destruct c; inversion E; subst.
      - apply lin_neg_spec; assumption.
      - split; auto. }
    unfold handle_minus in H.
    destruct (lterms l) as [|[k v] [|p2 d2]] eqn:El; try (apply (G2 _ _ _ H)).
    destruct (num_exact_zero (lcoef l)) eqn:Hz; try (apply (G2 _ _ _ H)).
    destruct k; try (apply (G2 _ _ _ H)).
    (* the key is itself a sum *)
    destruct (is_minus_one v) eqn:Hm; try (apply (G2 _ _ _ H)).
    destruct (lin_real_split _ Hr) as [Hc Ht]. rewrite El in Ht. simpl in Ht.
    rewrite Bool.andb_true_r in Ht. apply andb_prop in Ht. destruct Ht as [Hv Hk].
    assert (Hin : lin_real (mkLin coef d) = true) by exact Hk.
    assert (Eden : lin_den kv l = - lin_den kv (mkLin coef d)).
    { unfold lin_den at 1. rewrite El. simpl.
      destruct (num_exact_zero_R _ Hz) as [Z0 _]. rewrite Z0, (is_minus_one_R _ Hm).
      rewrite (kv_add kv Hkv coef d Hk). ring. }
    destruct (lin_cem (mkLin coef d)); inversion H; subst.
    - destruct (lin_neg_spec _ Hin) as [E R']. rewrite E, Eden. split; [ ring | exact R' ].
    - rewrite Eden. split; [ ring | exact Hin ].
  Qed.

  Lemma add_pi_spec r q : lin_real r = true ->
    lin_den kv (add_pi r q) = lin_den kv r + Q2R q * PI /\ lin_real (add_pi r q) = true.
  Proof.
    intros Hr. unfold add_pi. destruct (Z.eqb_spec (Qnum (Qred q)) 0) as [Hz|_].
    - split; auto. rewrite <- (Q2R_Qred q). unfold Q2R. rewrite Hz. simpl. ring.
    - destruct (numR_of_q (Qred q)) as [E Rl]. destruct (lin_real_split _ Hr) as [Hc Ht].
      split.
      + unfold lin_den. simpl. rewrite terms_den_app. simpl. rewrite E, Q2R_Qred.
        rewrite (kv_pi kv Hkv PI_E ltac:(reflexivity)). ring.
      + apply lin_real_join; auto. unfold terms_real. rewrite forallb_app.
        fold (terms_real (lterms r)). rewrite Ht. simpl. rewrite Rl. reflexivity.
  Qed.

  Lemma lin_is_zero_den l : lin_is_zero l = true -> lin_den kv l = 0.
  Proof.
    unfold lin_is_zero, lin_den. destruct (lterms l); try discriminate. intros H.
    destruct (num_exact_zero_R _ H) as [E _]. rewrite E. simpl. ring.
  Qed.

  Lemma Q2R_shift m j : Q2R ((m - (j # 1)) / (2 # 1)) = (Q2R m - IZR j) / 2.
  Proof.
    rewrite Q2R_div by discriminate. rewrite Q2R_minus, !Q2R_int. reflexivity.
  Qed.

  Lemma Q2R_half m : Q2R (m / (2 # 1)) = Q2R m / 2.
  Proof. rewrite Q2R_div by discriminate. rewrite Q2R_int. reflexivity. Qed.

  (* the argument r + pi*m/2 is j*pi/2 plus the shifted remainder, which handle_minus returns up to the sign it reports *)
  Lemma quadrant_arg r m j b ra : lin_real r = true ->
    handle_minus (add_pi r ((m - (j # 1)) / (2 # 1))) = (b, ra) ->
    lin_real ra = true /\
    lin_den kv r + Q2R m / 2 * PI = (if b then - lin_den kv ra else lin_den kv ra) + IZR j * (PI / 2).
  Proof.
    intros Hr Hh. destruct (add_pi_spec r ((m - (j # 1)) / (2 # 1)) Hr) as [Ea Ra].
    destruct (handle_minus_spec _ _ _ Hh Ra) as [Eh Rh]. rewrite Q2R_shift in Ea.
    split; [exact Rh|]. rewrite Eh, Ea. destruct b; field.
  Qed.

  (* the quadrant tests: arg = r + pi*m/2 *)
  Lemma ts_main_sound f m r :
    lin_real r = true ->
    (period_of f = 2%Z \/ Q2R m < 2) ->
    let ts := ts_main (odd_of f) (conj_odd_of f) m r in
    F f (lin_den kv r + Q2R m / 2 * PI) =
      IZR (ts_sign ts) * F (if ts_conj ts then cofn f else f) (lin_den kv (ts_rarg ts))
    /\ lin_real (ts_rarg ts) = true
    /\ (ts_index ts = None \/ ts_index ts = Some (-1)%Z).
  Proof.
    intros Hr Hper. unfold ts_main.
    destruct (qle (2 # 1) m && qlt m (3 # 1)) eqn:C1.
    - apply andb_prop in C1. destruct C1 as [C1 _]. apply qle_R in C1. rewrite Q2R_int in C1.
      assert (Hp : period_of f = 2%Z) by (destruct Hper as [Hp|Hlt]; [ exact Hp | lra ]).
      destruct (handle_minus (add_pi r ((m - (2 # 1)) / (2 # 1)))) as [b ra] eqn:Hh.
      destruct (quadrant_arg _ _ 2 _ _ Hr Hh) as [Rh E].
      cbn [ts_sign ts_conj ts_rarg ts_index].
      split; [ | split; [ exact Rh | left; reflexivity ] ].
      rewrite E. replace (2 * (PI / 2)) with PI by field. rewrite (F_pi f _ Hp).
      destruct b.
      + rewrite F_neg. unfold osign. destruct (odd_of f); simpl; ring.
      + rewrite Bool.andb_false_r. simpl. ring.
    - destruct (qle (1 # 1) m) eqn:C2.
      + destruct (qlt m (2 # 1)) eqn:C3.
        * destruct (handle_minus (add_pi r ((m - (1 # 1)) / (2 # 1)))) as [b ra] eqn:Hh.
          destruct (quadrant_arg _ _ 1 _ _ Hr Hh) as [Rh E].
          cbn [ts_sign ts_conj ts_rarg ts_index].
          split; [ | split; [ exact Rh | left; reflexivity ] ].
          rewrite E. replace (1 * (PI / 2)) with (PI / 2) by field. rewrite F_half.
          destruct b; rewrite ?F_cof_neg; unfold csign; destruct (conj_odd_of f); simpl; ring.
        * apply qlt_false_R in C3. rewrite Q2R_int in C3.
          assert (Hp : period_of f = 2%Z) by (destruct Hper as [Hp|Hlt]; [ exact Hp | lra ]).
          destruct (handle_minus (add_pi r ((m - (3 # 1)) / (2 # 1)))) as [b ra] eqn:Hh.
          destruct (quadrant_arg _ _ 3 _ _ Hr Hh) as [Rh E].
          cbn [ts_sign ts_conj ts_rarg ts_index].
          split; [ | split; [ exact Rh | left; reflexivity ] ].
          rewrite E. replace (3 * (PI / 2)) with (3 * PI / 2) by field. rewrite (F_3half f _ Hp).
          destruct b; rewrite ?F_cof_neg; unfold csign; destruct (conj_odd_of f); simpl; ring.
      + destruct (add_pi_spec r (m / (2 # 1)) Hr) as [Ea Ra].
        cbn [ts_sign ts_conj ts_rarg ts_index]. rewrite Q2R_half in Ea.
        split; [ | split; [ exact Ra | right; reflexivity ] ].
        rewrite Ea. simpl. ring.
  Qed.

  Lemma sign_parity f (b : bool) x :
    IZR (if odd_of f && b then -1 else 1) * F f (if b then - x else x) = F f x.
  Proof.
    destruct b.
    - rewrite Bool.andb_true_r, F_neg. unfold osign. destruct (odd_of f); simpl; ring.
    - rewrite Bool.andb_false_r. simpl. ring.
  Qed.

  (* trig_simplify: either the table exit (remainder zero, 12*n integer) with
     f(arg) = f(index*pi/12), or f(arg) = sign * (f or its cofunction)(rarg) *)
  Theorem trig_simplify_sound f arg :
    lin_real arg = true ->
    let ts := trig_simplify (period_of f) (odd_of f) (conj_odd_of f) arg in
    lin_real (ts_rarg ts) = true /\
    ((exists m, ts = mkTs lin_zero (Some m) 1 false /\ (0 <= m < 12 * period_of f)%Z /\
                F f (lin_den kv arg) = F f (IZR m * PI / 12))
     \/
     (F f (lin_den kv arg)
        = IZR (ts_sign ts) * F (if ts_conj ts then cofn f else f) (lin_den kv (ts_rarg ts))
      /\ (ts_index ts = None \/ ts_index ts = Some 0%Z \/ ts_index ts = Some (-1)%Z))).
  Proof.
    intros Hr. unfold trig_simplify.
    destruct (get_pi_shift arg) as [[n r]|] eqn:Hg.
    - destruct (get_pi_shift_spec _ _ _ Hg Hr) as [Ea Rr].
      destruct (ts_early (period_of f) (odd_of f) n r) as [o|] eqn:He.
      + unfold ts_early in He.
        destruct (q_is_int (Qred (n * (12 # 1)))) eqn:Hi; try discriminate.
        destruct (early_spec _ n (period_cases f) Hi) as [k Ek].
        destruct (lin_is_zero r) eqn:Hz.
        * injection He as <-. split; [ reflexivity | ]. left.
          exists (Qnum (Qred (n * (12 # 1))) mod (12 * period_of f))%Z. split; [ reflexivity | ]. split.
          { apply Z.mod_pos_bound. destruct f; simpl; lia. }
          rewrite Ea, (lin_is_zero_den _ Hz), Ek. apply (F_period_eq f k). field.
        * destruct ((Qnum (Qred (n * (12 # 1))) mod (12 * period_of f)) =? 0)%Z eqn:Hm0; try discriminate.
          apply Z.eqb_eq in Hm0. rewrite Hm0 in Ek.
          destruct (handle_minus r) as [b ra] eqn:Hh. injection He as <-.
          destruct (handle_minus_spec _ _ _ Hh Rr) as [Eh Rh].
          cbn [ts_sign ts_conj ts_rarg ts_index].
          split; [ exact Rh | ]. right. split; [ | right; left; reflexivity ].
          rewrite Ea, Ek, Eh, (F_period_eq f k _ (lin_den kv r)) by field. symmetry. apply sign_parity.
      + assert (Hper : period_of f = 2%Z \/ Q2R (ts_m (period_of f) n) < 2).
        { destruct (period_cases f) as [P1|P2]; [ | left; exact P2 ].
          right. rewrite P1. destruct (q_is_int n) eqn:Hin.
          - exfalso. destruct (early_int n Hin) as [Hi Hmod].
            unfold ts_early in He. rewrite Hi, P1 in He.
            replace (12 * 1)%Z with 12%Z in He by reflexivity. rewrite Hmod in He.
            destruct (lin_is_zero r); try discriminate. simpl in He.
            destruct (handle_minus r); discriminate.
          - apply ts_m_bound1. exact Hin. }
        destruct (ts_m_spec (period_of f) n (period_cases f)) as [k Ek].
        destruct (ts_main_sound f (ts_m (period_of f) n) r Rr Hper) as [E [Rm Ix]].
        split; [ exact Rm | ]. right. split.
        * rewrite <- E, Ea, Ek. apply (F_period_eq f k). field.
        * destruct Ix as [Ix|Ix]; [ left; exact Ix | right; right; exact Ix ].
    - destruct (handle_minus arg) as [b ra] eqn:Hh.
      destruct (handle_minus_spec _ _ _ Hh Hr) as [Eh Rh].
      cbn [ts_sign ts_conj ts_rarg ts_index].
      split; [ exact Rh | ]. right. split; [ | right; right; reflexivity ].
      rewrite Eh. symmetry. apply sign_parity.
  Qed.
End WithKv.

(* the standard valuation is admissible (non-vacuity of [kv_ok]) *)
Lemma ev_kv_ok v : kv_ok (ev v).
Proof.
  split.
  - intros k H. destruct k; simpl in H; try discriminate. simpl. rewrite H. reflexivity.
  - intros c d _. reflexivity.
Qed.
