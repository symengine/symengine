(* C08 obligation: gamma at integers ((n-1)!, zoo at n <= 0) and at half-integers: the
   coefficient c(k) of sqrt(pi) computed by gamma_multiple_2 for Gamma(k/2) satisfies c(1) = 1
   (Gamma(1/2) = sqrt(pi)) and the functional equation c(k+2) = (k/2) c(k) for EVERY odd k. *)
From Coq Require Import QArith List.
From SE Require Import C08.FuncModel C08.ExactProofs C08.GammaProofs.
Local Open Scope Z_scope.
Theorem C08_gamma_exact :
  (gamma_int 1 = Some 1
   /\ (forall n, 0 < n -> exists g, gamma_int n = Some g /\ gamma_int (n + 1) = Some (n * g))
   /\ (forall n, n <= 0 -> gamma_int n = None))
  /\ ((gamma_half 1 == 1)%Q
      /\ forall k, Z.odd k = true -> (gamma_half (k + 2) == (k # 2) * gamma_half k)%Q).
Proof. split; [ exact gamma_int_exact | exact gamma_half_exact_all ]. Qed.
Print Assumptions C08_gamma_exact.
