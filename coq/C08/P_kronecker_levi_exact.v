(* C08 obligation: kronecker_delta on rationals; eval_levicivita against the schoolbook
   definition (0 on a repeated index, (-1)^inversions otherwise) on the complete index
   universes {0..n-1}^n for n <= 6. *)
From Coq Require Import QArith List.
From SE Require Import C08.FuncModel C08.ExactProofs.
Theorem C08_kronecker_levi_exact :
  (forall i j, ((i == j)%Q -> kronecker_q i j = 1%Z) /\ (~ (i == j)%Q -> kronecker_q i j = 0%Z))
  /\ forallb (fun n => forallb levi_agrees (all_lists n n)) (seq 0 7) = true.
Proof. split; [ exact kronecker_exact | exact levi_civita_exact ]. Qed.
Print Assumptions C08_kronecker_levi_exact.
