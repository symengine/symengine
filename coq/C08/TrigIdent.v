(* C08 -- the identities of the six real functions that trig_simplify relies on:
   periodicity (period*pi), shift by pi, by pi/2, by 3pi/2, parity.  Division is total
   (x / 0 = 0 in Coq's Reals), and every identity below holds with that convention. *)
From Coq Require Import Reals Lra Lia.
From SE Require Import C08.FuncModel C08.FuncSpec.
Local Open Scope R_scope.

Lemma sin_periodZ x k : sin (x + 2 * IZR k * PI) = sin x.
Proof.
  destruct k as [|p|p].
  - replace (x + 2 * 0 * PI) with x by ring. reflexivity.
  - replace (IZR (Z.pos p)) with (INR (Pos.to_nat p))
      by (rewrite INR_IZR_INZ, (positive_nat_Z p); reflexivity).
    apply sin_period.
  - rewrite <- (sin_period (x + 2 * IZR (Z.neg p) * PI) (Pos.to_nat p)).
    f_equal. rewrite INR_IZR_INZ, (positive_nat_Z p).
    change (Z.neg p) with (- Z.pos p)%Z. rewrite opp_IZR. ring.
Qed.

Lemma cos_periodZ x k : cos (x + 2 * IZR k * PI) = cos x.
Proof.
  rewrite !cos_sin. replace (PI / 2 + (x + 2 * IZR k * PI)) with (PI / 2 + x + 2 * IZR k * PI) by ring.
  apply sin_periodZ.
Qed.

(* shift by an integer multiple of pi *)
Lemma sin_piZ x k : sin (x + IZR k * PI) = (if Z.even k then 1 else -1) * sin x.
Proof.
  destruct (Z.even k) eqn:Ev.
  - apply Z.even_spec in Ev. destruct Ev as [j Hj]. rewrite Hj at 1. rewrite mult_IZR.
    rewrite sin_periodZ. ring.
  - rewrite <- Z.negb_odd in Ev. apply Bool.negb_false_iff in Ev.
    apply Z.odd_spec in Ev. destruct Ev as [j Hj]. rewrite Hj at 1. rewrite plus_IZR, mult_IZR.
    replace (x + (2 * IZR j + 1) * PI) with ((x + PI) + 2 * IZR j * PI) by ring.
    rewrite sin_periodZ, neg_sin. ring.
Qed.

Lemma cos_piZ x k : cos (x + IZR k * PI) = (if Z.even k then 1 else -1) * cos x.
Proof.
  rewrite !cos_sin. replace (PI / 2 + (x + IZR k * PI)) with (PI / 2 + x + IZR k * PI) by ring.
  apply sin_piZ.
Qed.

Lemma sign_sq (b : bool) : (if b then 1 else -1) * (if b then 1 else -1) = 1.
Proof. destruct b; ring. Qed.

Lemma ratio_sign (s a b : R) : s * s = 1 -> (s * a) / (s * b) = a / b.
Proof.
  intros H.
  assert (Hn : s <> 0) by (intro E; rewrite E in H; lra).
  assert (Hs : / s = s).
  { apply Rmult_eq_reg_l with s; auto. rewrite Rinv_r; auto. }
  unfold Rdiv. rewrite Rinv_mult, Hs.
  replace (s * a * (s * / b)) with ((s * s) * (a * / b)) by ring.
  rewrite H. ring.
Qed.

(* periodicity: period_of f * k * pi *)
Lemma F_period f x k : F f (x + IZR (period_of f) * IZR k * PI) = F f x.
Proof.
  destruct f; simpl.
  - apply sin_periodZ.
  - apply cos_periodZ.
  - unfold tan. replace (x + 1 * IZR k * PI) with (x + IZR k * PI) by ring.
    rewrite sin_piZ, cos_piZ. apply ratio_sign. apply sign_sq.
  - unfold cot. replace (x + 1 * IZR k * PI) with (x + IZR k * PI) by ring.
    rewrite sin_piZ, cos_piZ. apply ratio_sign. apply sign_sq.
  - unfold sec. rewrite cos_periodZ. reflexivity.
  - unfold csc. rewrite sin_periodZ. reflexivity.
Qed.

Lemma F_period_eq f k a b : a = b + IZR (period_of f) * IZR k * PI -> F f a = F f b.
Proof. intros ->. apply F_period. Qed.

(* shift by pi for the functions of period 2pi *)
Lemma F_pi f x : period_of f = 2%Z -> F f (x + PI) = - F f x.
Proof.
  destruct f; simpl; intros H; try discriminate.
  - apply neg_sin.
  - apply neg_cos.
  - unfold sec. rewrite neg_cos. apply Rdiv_opp_r.
  - unfold csc. rewrite neg_sin. apply Rdiv_opp_r.
Qed.

Definition csign (f : trigfn) : R := if conj_odd_of f then -1 else 1.
Definition osign (f : trigfn) : R := if odd_of f then -1 else 1.

Lemma sin_half x : sin (x + PI / 2) = cos x.
Proof. rewrite sin_plus, sin_PI2, cos_PI2. ring. Qed.
Lemma cos_half x : cos (x + PI / 2) = - sin x.
Proof. rewrite cos_plus, sin_PI2, cos_PI2. ring. Qed.

(* shift by pi/2: the cofunction, negated for cos, tan, cot, sec *)
Lemma F_half f x : F f (x + PI / 2) = csign f * F (cofn f) x.
Proof.
  destruct f; unfold csign; simpl.
  - rewrite sin_half. ring.
  - rewrite cos_half. ring.
  - unfold tan, cot. rewrite sin_half, cos_half. unfold Rdiv. rewrite Rinv_opp. ring.
  - unfold tan, cot. rewrite sin_half, cos_half. unfold Rdiv. ring.
  - unfold sec, csc. rewrite cos_half, Rdiv_opp_r. ring.
  - unfold sec, csc. rewrite sin_half. ring.
Qed.

Lemma F_3half f x : period_of f = 2%Z -> F f (x + 3 * PI / 2) = - csign f * F (cofn f) x.
Proof.
  intros H. replace (x + 3 * PI / 2) with ((x + PI / 2) + PI) by field.
  rewrite (F_pi f _ H), F_half. ring.
Qed.

(* parity *)
Lemma F_neg f x : F f (- x) = osign f * F f x.
Proof.
  destruct f; unfold osign; simpl.
  - rewrite sin_neg. ring.
  - rewrite cos_neg. ring.
  - unfold tan. rewrite sin_neg, cos_neg. unfold Rdiv. ring.
  - unfold cot. rewrite sin_neg, cos_neg. unfold Rdiv. rewrite Rinv_opp. ring.
  - unfold sec. rewrite cos_neg. ring.
  - unfold csc. rewrite sin_neg. rewrite Rdiv_opp_r. ring.
Qed.

Lemma cofn_parity f : osign (cofn f) = csign f.
Proof. destruct f; reflexivity. Qed.

Lemma F_cof_neg f x : F (cofn f) (- x) = csign f * F (cofn f) x.
Proof. rewrite F_neg, cofn_parity. reflexivity. Qed.

Lemma period_cases f : period_of f = 1%Z \/ period_of f = 2%Z.
Proof. destruct f; simpl; auto. Qed.
