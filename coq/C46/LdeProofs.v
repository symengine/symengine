(* C46 -- the model of homogeneous_lde returns exactly the minimal solutions, each once
   (lde_exact, from lde_sound and lde_antichain of LdeInv.v and lde_complete of LdeComplete.v);
   what the guard on the in/out argument is for; the result does not depend on the fuel; the
   loop ends on small universes; what order and is_minimum compute. *)
From SE Require Export C46.LdeComplete C46.LdeEnum.
From Coq Require Import Lia.
Local Open Scope Z_scope.

Theorem lde_exact A fuel B : wf_mat A -> homogeneous_lde fuel A = Ok B ->
  NoDup B /\ forall x, In x B <-> minimal_solution A x.
Proof.
  intros Hwf E. destruct (lde_antichain A fuel B Hwf E) as [Hnd Hanti]. split; [exact Hnd|].
  intros x. split.
  - intros Hx. pose proof (lde_sound A fuel B Hwf E x Hx) as Sx.
    destruct (minimal_below A x Sx) as [s [Ms Ls]].
    pose proof (lde_complete A fuel B Hwf E s Ms) as Hs.
    rewrite <- (Hanti s x Hs Hx Ls). exact Ms.
  - apply (lde_complete A fuel B Hwf E).
Qed.

(* the same under the guard, for the in/out argument *)
Theorem lde_from_guarded A fuel basis0 B : wf_mat A -> guard_basis_empty basis0 = true ->
  lde_from fuel A basis0 = Ok B -> NoDup B /\ forall x, In x B <-> minimal_solution A x.
Proof.
  intros Hwf G E. destruct basis0; [|discriminate]. apply (lde_exact A fuel B Hwf E).
Qed.

(* without the guard: the vectors already in `basis` are kept and can be returned twice *)
Theorem lde_from_refuted :
  exists A basis0 B, wf_mat A /\ Forall (is_solution A) basis0 /\
    lde_from 50 A basis0 = Ok B /\ ~ NoDup B /\ exists x, In x B /\ ~ minimal_solution A x.
Proof.
  exists {| m_p := 1; m_q := 2; m_rows := [[1; -1]] |}, [[1; 1]; [2; 2]], [[1; 1]; [2; 2]; [1; 1]].
  assert (S1 : forall a, 0 < a -> is_solution {| m_p := 1; m_q := 2; m_rows := [[1; -1]] |} [a; a]).
  { intros a Ha. split; [reflexivity|]. split; [intros i; do 3 (destruct i as [|i]; simpl; try lia)|]. split.
    - simpl. intros E. inversion E. lia.
    - constructor; [cbn [dotZ]; lia|constructor]. }
  split; [split; [reflexivity|repeat constructor]|].
  split; [repeat constructor; apply S1; lia|].
  split; [vm_compute; reflexivity|]. split.
  - intros H. inversion H as [|? ? Hn _]; subst. apply Hn. right. left. reflexivity.
  - exists [2; 2]. split; [right; left; reflexivity|].
    intros [_ Hm]. specialize (Hm [1; 1] (S1 1 ltac:(lia))).
    assert (E : [1; 1] = [2; 2]); [|discriminate]. apply Hm. split; [reflexivity|].
    intros i; do 3 (destruct i as [|i]; simpl; try lia).
Qed.

Lemma lde_loop_fuel_mono A : forall f s B, lde_loop f A s = Ok B -> forall f', (f <= f')%nat -> lde_loop f' A s = Ok B.
Proof.
  induction f as [|f IH]; intros s B E f' Hf; [discriminate|].
  destruct f' as [|f']; [lia|]. cbn [lde_loop] in *.
  destruct (while_body A s) as [r|]; [|exact E].
  destruct r as [s'| | |]; cbn [bind] in *; try discriminate. apply IH; [exact E|lia].
Qed.

(* the result does not depend on the fuel once the loop has ended *)
Theorem lde_fuel_mono A f f' B : (f <= f')%nat -> homogeneous_lde f A = Ok B -> homogeneous_lde f' A = Ok B.
Proof.
  unfold homogeneous_lde, lde_from. intros Hf E.
  destruct (init_state A []) as [s| | |]; cbn [bind] in *; try discriminate.
  eapply lde_loop_fuel_mono; eauto.
Qed.

Definition bounded (m : nat) (A : mat) : Prop :=
  Forall (Forall (fun a => - Z.of_nat m <= a <= Z.of_nat m)) (m_rows A).

(* The abstract loop looks at A only through q and t |-> A^T (A t). *)
Definition same_steps (A A' : mat) : Prop :=
  m_q A = m_q A' /\
  forall t, all_zero (prod_of A t) = all_zero (prod_of A' t) /\
            forall j, colsum (m_rows A) (prod_of A t) j = colsum (m_rows A') (prod_of A' t) j.

Lemma afor_ext A A' basis pr pr' tzero t :
  (forall j, colsum (m_rows A) pr j = colsum (m_rows A') pr' j) ->
  forall cnt i F Zs, afor A basis pr tzero t i cnt F Zs = afor A' basis pr' tzero t i cnt F Zs.
Proof.
  intros H. induction cnt as [|c IH]; intros i F Zs; cbn [afor]; [reflexivity|].
  unfold push_cond. rewrite H, !IH. reflexivity.
Qed.

Lemma aloop_ext A A' : same_steps A A' ->
  forall fuel Zs basis, aloop fuel A Zs basis = aloop fuel A' Zs basis.
Proof.
  intros [Hq H]. induction fuel as [|f IH]; intros Zs basis; cbn [aloop]; [reflexivity|].
  assert (E : astep A Zs basis = astep A' Zs basis).
  { destruct Zs as [|[t Fr] Z1]; [reflexivity|]. destruct (H t) as [Hz Hc].
    cbn [astep]. rewrite <- Hq, <- Hz, (afor_ext A A' _ _ _ _ _ Hc). reflexivity. }
  rewrite E. destruct (astep A' Zs basis) as [[Z' b']|]; [apply IH|reflexivity].
Qed.

(* so a row may be replaced by its negative *)
Lemma dotZ_opp t : forall r, dotZ (map Z.opp r) t = - dotZ r t.
Proof.
  induction t as [|b t IH]; intros [|a r]; simpl; try reflexivity. rewrite IH. ring.
Qed.

Lemma same_steps_signs (norm : list Z -> list Z) A :
  (forall r, norm r = r \/ norm r = map Z.opp r) ->
  same_steps A {| m_p := m_p A; m_q := m_q A; m_rows := map norm (m_rows A) |}.
Proof.
  intros Hn. split; [reflexivity|]. intros t. unfold prod_of. cbn [m_rows].
  induction (m_rows A) as [|r rows [IHz IHc]]; [split; reflexivity|].
  assert (E : dotZ (norm r) t = dotZ r t /\ (forall j, nth j (norm r) 0 = nth j r 0) \/
              dotZ (norm r) t = - dotZ r t /\ forall j, nth j (norm r) 0 = - nth j r 0).
  { destruct (Hn r) as [->| ->]; [left; split; reflexivity|right].
    split; [apply dotZ_opp|]. intros j. apply (map_nth Z.opp r 0 j). }
  unfold all_zero in *. cbn [map forallb colsum]. rewrite IHz. split.
  - f_equal. apply Bool.eq_iff_eq_true. rewrite !Z.eqb_eq. lia.
  - intros j. rewrite IHc. f_equal. destruct E as [[-> ->]|[-> ->]]; ring.
Qed.

Fixpoint words {T} (n : nat) (L : list T) : list (list T) :=
  match n with
  | O => [[]]
  | S k => flat_map (fun w => map (fun a => a :: w) L) (words k L)
  end.

Lemma in_words {T} (L : list T) : forall n w, length w = n -> Forall (fun a => In a L) w -> In w (words n L).
Proof.
  induction n as [|k IH]; intros [|a w] Hl H; try discriminate; [left; reflexivity|].
  inversion H; subst. cbn [words]. apply in_flat_map. exists w. split; [apply IH; auto|].
  apply (in_map (fun b => b :: w)). assumption.
Qed.

Definition zrange (m : nat) : list Z := map (fun n => Z.of_nat n - Z.of_nat m) (seq 0 (2 * m + 1)).

Lemma in_zrange m a : - Z.of_nat m <= a <= Z.of_nat m -> In a (zrange m).
Proof.
  intros H. unfold zrange. apply in_map_iff. exists (Z.to_nat (a + Z.of_nat m)). split; [lia|].
  apply in_seq. lia.
Qed.

(* rows up to sign: those whose first non-zero entry is positive *)
Fixpoint lead (v : list Z) : Z :=
  match v with [] => 0 | a :: r => if a =? 0 then lead r else a end.

Lemma lead_opp v : lead (map Z.opp v) = - lead v.
Proof.
  induction v as [|a v IH]; [reflexivity|]. cbn [map lead]. rewrite IH.
  destruct (Z.eqb_spec a 0) as [->|N]; [reflexivity|]. destruct (Z.eqb_spec (- a) 0); [lia|reflexivity].
Qed.

Definition norm (v : list Z) : list Z := if 0 <=? lead v then v else map Z.opp v.

Lemma norm_sign v : norm v = v \/ norm v = map Z.opp v.
Proof. unfold norm. destruct (0 <=? lead v); auto. Qed.

Definition half_rows (q m : nat) : list (list Z) := filter (fun v => 0 <=? lead v) (words q (zrange m)).

Lemma norm_in_half_rows q m r : length r = q -> Forall (fun a => - Z.of_nat m <= a <= Z.of_nat m) r ->
  In (norm r) (half_rows q m).
Proof.
  intros Hl Hb. apply filter_In. unfold norm. destruct (Z.leb_spec 0 (lead r)) as [Hs|Hs].
  - split; [|apply Z.leb_le; exact Hs]. apply in_words; [exact Hl|].
    eapply Forall_impl; [|exact Hb]. apply in_zrange.
  - split; [|rewrite lead_opp; apply Z.leb_le; lia]. apply in_words; [rewrite map_length; exact Hl|].
    rewrite Forall_map. eapply Forall_impl; [|exact Hb]. intros a Ha. apply in_zrange. cbv beta in Ha. lia.
Qed.

Definition sweep (fuel P Q m : nat) : bool :=
  forallb (fun q => forallb (fun p => forallb (fun rows =>
      is_ok (aloop fuel {| m_p := p; m_q := q; m_rows := rows |} [(vec_zero q, repeat false q)] []))
    (words p (half_rows q m))) (seq 0 (S P))) (seq 0 (S Q)).

Lemma sweep_sound fuel P Q m : sweep fuel P Q m = true ->
  forall A, wf_mat A -> (m_p A <= P)%nat -> (m_q A <= Q)%nat -> bounded m A ->
  exists B, homogeneous_lde fuel A = Ok B.
Proof.
  intros H A Hwf HP HQ Hb.
  assert (Hin : In (map norm (m_rows A)) (words (m_p A) (half_rows (m_q A) m))).
  { destruct Hwf as [Hp Hr]. unfold bounded in Hb. rewrite Forall_forall in Hr, Hb.
    apply in_words; [rewrite map_length; exact Hp|]. rewrite Forall_map. apply Forall_forall.
    intros r Hin. apply norm_in_half_rows; auto. }
  unfold sweep in H. rewrite forallb_forall in H.
  specialize (H (m_q A) ltac:(apply in_seq; lia)). rewrite forallb_forall in H.
  specialize (H (m_p A) ltac:(apply in_seq; lia)). rewrite forallb_forall in H.
  specialize (H _ Hin).
  unfold homogeneous_lde. rewrite (lde_refines A fuel [] Hwf (Forall_nil _)).
  rewrite (aloop_ext _ _ (same_steps_signs norm A norm_sign)). unfold astart.
  destruct (aloop fuel _ _ []) as [B| | |]; [exists B; reflexivity|discriminate H..].
Qed.

(* the loop ends within 400 iterations on every matrix with at most 2 rows, at most 3 columns
   and entries in [-2,2], on every single equation in at most 4 unknowns with coefficients
   in [-3,3], and on every matrix up to 3 x 3 or 2 x 4 with entries in {-1,0,1}
   (complete sweeps up to the sign of each row, run on the abstract loop by the kernel) *)
Theorem lde_terminates_small A : wf_mat A ->
  ((m_p A <= 2)%nat /\ (m_q A <= 3)%nat /\ bounded 2 A) \/
  ((m_p A <= 1)%nat /\ (m_q A <= 4)%nat /\ bounded 3 A) \/
  ((m_p A <= 3)%nat /\ (m_q A <= 3)%nat /\ bounded 1 A) \/
  ((m_p A <= 2)%nat /\ (m_q A <= 4)%nat /\ bounded 1 A) ->
  exists B, homogeneous_lde 400 A = Ok B.
Proof.
  intros Hwf [[HP [HQ Hb]]|[[HP [HQ Hb]]|[[HP [HQ Hb]]|[HP [HQ Hb]]]]].
  - apply (sweep_sound 400 2 3 2); [vm_compute; reflexivity|assumption..].
  - apply (sweep_sound 400 1 4 3); [vm_compute; reflexivity|assumption..].
  - apply (sweep_sound 400 3 3 1); [vm_compute; reflexivity|assumption..].
  - apply (sweep_sound 400 2 4 1); [vm_compute; reflexivity|assumption..].
Qed.

(* order and is_minimum on vectors of equal width: order(t, basis, k) says "basis[k] is strictly
   below t", is_minimum(t, basis, size) says "no basis element is strictly below t" *)
Theorem order_correct t basis k bk : nth_error basis k = Some bk -> length bk = length t ->
  exists o, order t basis k = Ok o /\ (o = true <-> le_vec bk t /\ bk <> t).
Proof.
  intros Hk L. exists (lt_vecb bk t). split; [apply order_spec; assumption|]. apply lt_vecb_spec.
Qed.

Theorem is_minimum_correct t basis : Forall (fun b => length b = length t) basis ->
  exists m, is_minimum t basis (length basis) = Ok m /\
            (m = true <-> forall b, In b basis -> ~ (le_vec b t /\ b <> t)).
Proof.
  intros H. exists (amin t basis). split; [apply is_minimum_full; exact H|]. split.
  - apply amin_true.
  - apply amin_intro.
Qed.
