(* C46 -- basic lemmas: checked containers, set_nth, vectors, boolean comparisons. *)
From SE Require Export C46.LdeSpec.
From Coq Require Import Lia.
Local Open Scope Z_scope.

Lemma vget_nth_error {T} (v : list T) i x : nth_error v i = Some x -> vget v i = Ok x.
Proof. unfold vget; intros ->; reflexivity. Qed.

Lemma vget_nth {T} (v : list T) i d : (i < length v)%nat -> vget v i = Ok (nth i v d).
Proof.
  intros H. unfold vget. destruct (nth_error v i) eqn:E.
  - rewrite (nth_error_nth _ _ d E). reflexivity.
  - apply nth_error_None in E. lia.
Qed.

Lemma vget_app {T} (l1 : list T) x l2 : vget (l1 ++ x :: l2) (length l1) = Ok x.
Proof.
  apply vget_nth_error. rewrite nth_error_app2 by lia. rewrite Nat.sub_diag. reflexivity.
Qed.

Lemma set_nth_length {T} (v : list T) i x : length (set_nth v i x) = length v.
Proof. revert i; induction v; destruct i; simpl; auto. Qed.

Lemma vset_ok {T} (v : list T) i x : (i < length v)%nat -> vset v i x = Ok (set_nth v i x).
Proof. intros H. unfold vset. destruct (Nat.ltb_spec i (length v)); [reflexivity | lia]. Qed.

Lemma set_nth_app {T} (l1 : list T) x l2 y : set_nth (l1 ++ x :: l2) (length l1) y = l1 ++ y :: l2.
Proof. induction l1; simpl; congruence. Qed.

Lemma vset_app {T} (l1 : list T) x l2 y : vset (l1 ++ x :: l2) (length l1) y = Ok (l1 ++ y :: l2).
Proof. rewrite vset_ok by (rewrite app_length; simpl; lia). rewrite set_nth_app. reflexivity. Qed.

Lemma nth_set_nth {T} (v : list T) i x j d :
  nth j (set_nth v i x) d = if Nat.eqb j i && Nat.ltb i (length v) then x else nth j v d.
Proof.
  revert i j; induction v; intros i j; simpl.
  - rewrite Bool.andb_false_r. reflexivity.
  - destruct i, j; simpl; auto.
    rewrite IHv. reflexivity.
Qed.

Lemma nth_set_nth_eq {T} (v : list T) i x d : (i < length v)%nat -> nth i (set_nth v i x) d = x.
Proof.
  intros. rewrite nth_set_nth, Nat.eqb_refl. destruct (Nat.ltb_spec i (length v)); [reflexivity | lia].
Qed.

Lemma nth_set_nth_neq {T} (v : list T) i x j d : j <> i -> nth j (set_nth v i x) d = nth j v d.
Proof.
  intros. rewrite nth_set_nth. destruct (Nat.eqb_spec j i); [contradiction | reflexivity].
Qed.

Lemma set_nth_set_nth {T} (v : list T) i x y : set_nth (set_nth v i x) i y = set_nth v i y.
Proof. revert i; induction v; destruct i; simpl; auto. rewrite IHv; reflexivity. Qed.

Lemma nth_error_set_nth_eq {T} (v : list T) i x : (i < length v)%nat -> nth_error (set_nth v i x) i = Some x.
Proof. revert i; induction v; destruct i; simpl; intros; try lia; auto. apply IHv; lia. Qed.

Lemma nth_error_set_nth_neq {T} (v : list T) i x j : j <> i -> nth_error (set_nth v i x) j = nth_error v j.
Proof. revert i j; induction v; destruct i, j; simpl; intros; try congruence; auto. Qed.

Lemma firstn_set_nth_ge {T} (v : list T) i x n : (n <= i)%nat -> firstn n (set_nth v i x) = firstn n v.
Proof.
  revert i n; induction v; intros i n H; destruct i, n; simpl; auto; try lia.
  rewrite IHv by lia. reflexivity.
Qed.

Lemma firstn_S_set_nth {T} (v : list T) n x : (n < length v)%nat -> firstn (S n) (set_nth v n x) = firstn n v ++ [x].
Proof.
  revert n; induction v; intros n H; simpl in H; [lia|].
  destruct n; simpl; [reflexivity|]. f_equal. apply IHv. lia.
Qed.

Lemma Forall_set_nth {T} (P : T -> Prop) v i x : Forall P v -> P x -> Forall P (set_nth v i x).
Proof.
  revert i; induction v; intros i Hv Hx; destruct i; simpl; auto; inversion Hv; subst; constructor; auto.
Qed.

Lemma vec_ext (x y : list Z) : length x = length y -> (forall i, nth i x 0 = nth i y 0) -> x = y.
Proof.
  intros L H. apply nth_ext with (d := 0) (d' := 0); auto.
Qed.

Lemma nth_vec_zero q i : nth i (vec_zero q) 0 = 0.
Proof. apply nth_repeat. Qed.

Lemma vec_zero_length q : length (vec_zero q) = q.
Proof. apply repeat_length. Qed.

Lemma vec_eqb_spec x y : vec_eqb x y = true <-> x = y.
Proof.
  revert y; induction x; destruct y; simpl; split; intros; try congruence; auto.
  - apply Bool.andb_true_iff in H. destruct H as [H1 H2]. apply Z.eqb_eq in H1. apply IHx in H2. congruence.
  - inversion H; subst. rewrite Z.eqb_refl. simpl. apply IHx. reflexivity.
Qed.

Lemma le_vecb_spec x y : le_vecb x y = true <-> le_vec x y.
Proof.
  unfold le_vec. revert y; induction x; destruct y; simpl; split; intros H; try discriminate.
  - split; auto. intros []; lia.
  - reflexivity.
  - destruct H; discriminate.
  - destruct H; discriminate.
  - apply Bool.andb_true_iff in H. destruct H as [H1 H2]. apply Z.leb_le in H1. apply IHx in H2.
    destruct H2 as [L N]. split; [lia|]. intros [|i]; simpl; auto.
  - destruct H as [L N]. apply Bool.andb_true_iff. split.
    + apply Z.leb_le. apply (N O).
    + apply IHx. split; [lia|]. intros i. apply (N (S i)).
Qed.

Definition lt_vec (x y : list Z) : Prop := le_vec x y /\ x <> y.

Lemma lt_vecb_spec x y : lt_vecb x y = true <-> lt_vec x y.
Proof.
  unfold lt_vecb, lt_vec. rewrite Bool.andb_true_iff, le_vecb_spec, Bool.negb_true_iff.
  split; intros [H1 H2]; split; auto.
  - intros E. apply vec_eqb_spec in E. congruence.
  - destruct (vec_eqb x y) eqn:E; auto. apply vec_eqb_spec in E. contradiction.
Qed.

Lemma le_vec_refl x : le_vec x x.
Proof. split; auto. intros; lia. Qed.

Lemma le_vec_trans x y z : le_vec x y -> le_vec y z -> le_vec x z.
Proof. intros [L1 H1] [L2 H2]. split; [congruence|]. intros i. specialize (H1 i). specialize (H2 i). lia. Qed.

Lemma le_vec_antisym x y : le_vec x y -> le_vec y x -> x = y.
Proof. intros [L1 H1] [L2 H2]. apply vec_ext; auto. intros i. specialize (H1 i). specialize (H2 i). lia. Qed.

Lemma all_zero_spec x : all_zero x = true <-> x = vec_zero (length x).
Proof.
  unfold all_zero, vec_zero. induction x; simpl; split; intros H; auto.
  - apply Bool.andb_true_iff in H. destruct H as [H1 H2]. apply Z.eqb_eq in H1. subst. f_equal. apply IHx. auto.
  - inversion H. rewrite <- H2. simpl. apply IHx. congruence.
Qed.

(* t + e_i *)
Definition bump (t : list Z) (i : nat) : list Z := set_nth t i (nth i t 0 + 1).

Lemma bump_length t i : length (bump t i) = length t.
Proof. apply set_nth_length. Qed.

Lemma nth_bump_eq t i : (i < length t)%nat -> nth i (bump t i) 0 = nth i t 0 + 1.
Proof. intros. unfold bump. apply nth_set_nth_eq. auto. Qed.

Lemma nth_bump_neq t i j : j <> i -> nth j (bump t i) 0 = nth j t 0.
Proof. intros. unfold bump. apply nth_set_nth_neq. auto. Qed.

Lemma nth_bump_ge t i j : nth j t 0 <= nth j (bump t i) 0.
Proof.
  unfold bump. rewrite nth_set_nth. destruct (Nat.eqb_spec j i); simpl; [|lia].
  subst. destruct (Nat.ltb i (length t)); lia.
Qed.

Lemma le_vec_bump t i : le_vec t (bump t i).
Proof. split; [symmetry; apply bump_length | intros; apply nth_bump_ge]. Qed.

Lemma pairs_ok_app {T} (R : T -> T -> Prop) l1 l2 :
  pairs_ok R (l1 ++ l2) <-> pairs_ok R l1 /\ pairs_ok R l2 /\ (forall a b, In a l1 -> In b l2 -> R a b).
Proof.
  induction l1; simpl.
  - intuition.
  - rewrite Forall_app, IHl1. split.
    + intros [[H1 H2] [H3 [H4 H5]]]. repeat split; auto.
      intros x b [->|Hx] Hb; auto. rewrite Forall_forall in H2. auto.
    + intros [[H1 H2] [H3 H4]]. repeat split; auto.
      apply Forall_forall. intros b Hb. apply H4; auto.
Qed.

Lemma pairs_ok_In {T} (R : T -> T -> Prop) l : pairs_ok R l ->
  forall i j a b, (i < j)%nat -> nth_error l i = Some a -> nth_error l j = Some b -> R a b.
Proof.
  induction l; intros H i j x y Hij Hi Hj.
  - destruct i; discriminate.
  - destruct H as [H1 H2]. destruct j; [lia|]. destruct i; simpl in *.
    + inversion Hi; subst. rewrite Forall_forall in H1. apply H1. eapply nth_error_In; eauto.
    + apply (IHl H2 i j x y); auto; lia.
Qed.
