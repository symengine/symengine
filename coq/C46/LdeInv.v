(* C46 -- invariants of the abstract loop: everything put into the basis is a non-zero
   non-negative solution, and the basis stays an antichain.  The argument is local to the
   stack: an entry above another one has a frozen component on which it is strictly
   smaller, and is not below it. *)
From SE Require Export C46.LdeRefine.
From Coq Require Import Lia.
Local Open Scope Z_scope.

(* what the stack keeps between an entry u and any entry l under it (u upper, pushed later;
   l lower) *)
Definition Rst (u l : entry) : Prop :=
  (exists i, nth i (snd u) false = true /\ nth i (fst u) 0 < nth i (fst l) 0) /\
  ~ le_vec (fst u) (fst l).

(* x is incomparable with every element of the basis: appending x keeps the antichain *)
Definition sep (x : list Z) (basis : list (list Z)) : Prop :=
  forall b, In b basis -> ~ le_vec x b /\ ~ le_vec b x.

Record core (A : mat) (Zs : list entry) (basis : list (list Z)) : Prop := {
  co_entries : Forall (entry_ok (m_q A)) Zs;
  co_nonneg : forall e, In e Zs -> nonneg (fst e);
  co_sep : forall e, In e Zs -> sep (fst e) basis;
  co_pairs : pairs_ok Rst Zs
}.

Record ainv (A : mat) (Zs : list entry) (basis : list (list Z)) : Prop := {
  ai_core : core A Zs basis;
  ai_sols : Forall (is_solution A) basis;
  ai_anti : antichain basis
}.

Lemma nonneg_bump t i : nonneg t -> nonneg (bump t i).
Proof. intros H j. pose proof (nth_bump_ge t i j). specialize (H j). lia. Qed.

Lemma nth_true_lt (F : list bool) j : nth j F false = true -> (j < length F)%nat.
Proof.
  intros H. destruct (Nat.ltb_spec j (length F)); auto. rewrite nth_overflow in H by lia. discriminate.
Qed.

Lemma nth_set_true (F : list bool) i j : nth j F false = true -> nth j (set_nth F i true) false = true.
Proof.
  intros H. rewrite nth_set_nth. destruct (Nat.eqb j i && Nat.ltb i (length F))%bool; auto.
Qed.

Lemma all_zero_map_solves A t : all_zero (prod_of A t) = true -> solves A t.
Proof.
  unfold all_zero, prod_of, solves. rewrite forallb_forall, Forall_forall.
  intros H r Hr. apply Z.eqb_eq. apply H. apply in_map_iff. exists r. auto.
Qed.

Lemma solves_all_zero A t : solves A t -> all_zero (prod_of A t) = true.
Proof.
  unfold all_zero, prod_of, solves. rewrite forallb_forall, Forall_forall.
  intros H x Hx. apply in_map_iff in Hx. destruct Hx as [r [<- Hr]]. apply Z.eqb_eq. auto.
Qed.

Lemma le_vec_zero q b : length b = q -> nonneg b -> le_vec (vec_zero q) b.
Proof.
  intros L N. split; [rewrite vec_zero_length; auto|]. intros i. rewrite nth_vec_zero. apply N.
Qed.

Lemma push_cond_true A basis product tzero t F i :
  push_cond A basis product tzero t F i = true ->
  nth i F false = false /\ (tzero = true \/ amin (bump t i) basis = true).
Proof.
  unfold push_cond. intros H. apply Bool.andb_true_iff in H. destruct H as [H1 H2].
  split; [destruct (nth i F false); [discriminate|reflexivity]|].
  apply Bool.orb_true_iff in H2. destruct H2 as [H2|H2]; [right|left; exact H2].
  apply Bool.andb_true_iff in H2. tauto.
Qed.

Lemma amin_true T basis : amin T basis = true -> forall b, In b basis -> ~ lt_vec b T.
Proof.
  unfold amin. rewrite forallb_forall. intros H b Hb L. specialize (H b Hb).
  apply lt_vecb_spec in L. rewrite L in H. discriminate.
Qed.

Lemma amin_intro T basis : (forall b, In b basis -> ~ lt_vec b T) -> amin T basis = true.
Proof.
  unfold amin. rewrite forallb_forall. intros H b Hb. destruct (lt_vecb b T) eqn:E; auto.
  apply lt_vecb_spec in E. exfalso. eapply H; eauto.
Qed.

(* The for loop run on the popped entry (t, Fr), with Z1 the rest of the stack, keeps [core].
   [forinv]: F only grows from Fr, and every entry is one of Z1 or a child t + e_j pushed at
   some j < i, which is frozen in F from then on. *)
Section ForLoop.
Variable A : mat.
Variable basis : list (list Z).
Variable product : list Z.
Variable tzero : bool.
Variable t : list Z.
Variable Fr : list bool.
Variable Z1 : list entry.

Hypothesis Lt : length t = m_q A.
Hypothesis LFr : length Fr = m_q A.
Hypothesis Nt : nonneg t.
Hypothesis St : sep t basis.
Hypothesis Rt : Forall (Rst (t, Fr)) Z1.
Hypothesis Hsols : Forall (is_solution A) basis.
Hypothesis Htz : tzero = vec_eqb t (vec_zero (m_q A)).

Record forinv (i : nat) (F : list bool) (Zs : list entry) : Prop := {
  fi_len : length F = m_q A;
  fi_sup : forall j, nth j Fr false = true -> nth j F false = true;
  fi_kids : forall e, In e Zs -> In e Z1 \/ exists j, (j < i)%nat /\ nth j F false = true /\ fst e = bump t j;
  fi_core : core A Zs basis
}.

Lemma forinv_step i F Zs : (i < m_q A)%nat -> forinv i F Zs ->
  forinv (S i) (snd (fnext A basis product tzero t i F Zs)) (fst (fnext A basis product tzero t i F Zs)).
Proof using Lt LFr Nt St Rt Hsols Htz.
  intros Hi [Il Is Ik [Ce Cn Cs Cp]]. unfold fnext.
  destruct (push_cond A basis product tzero t F i) eqn:Epc; cbn [fst snd].
  - apply push_cond_true in Epc. destruct Epc as [HFi Hwhy].
    assert (Sc : sep (bump t i) basis).
    { intros b Hb. destruct (St b Hb) as [S1 S2].
      assert (N1 : ~ le_vec (bump t i) b).
      { intros L. apply S1. eapply le_vec_trans; [apply le_vec_bump|exact L]. }
      split; [exact N1|].
      destruct Hwhy as [Hz|Hm].
      - (* t is the zero vector: nothing is in the basis yet *)
        exfalso. apply S1. rewrite Hz in Htz. symmetry in Htz. apply vec_eqb_spec in Htz. rewrite Htz.
        rewrite Forall_forall in Hsols. destruct (Hsols b Hb) as [Lb [Nb _]].
        apply le_vec_zero; auto.
      - intros L. pose proof (amin_true _ _ Hm b Hb) as NL.
        apply NL. split; [exact L|]. intros E. apply N1. rewrite E. apply le_vec_refl. }
    constructor.
    + rewrite set_nth_length. exact Il.
    + intros j Hj. apply nth_set_true. auto.
    + intros e [<-|He].
      * right. exists i. split; [lia|]. split; [|reflexivity].
        rewrite nth_set_nth_eq; auto. lia.
      * destruct (Ik e He) as [H1|[j [Hj [HF E]]]]; [left; exact H1|].
        right. exists j. split; [lia|]. split; [apply nth_set_true; exact HF|exact E].
    + constructor.
      * constructor; auto. split; cbn [fst snd]; [rewrite bump_length; exact Lt|exact Il].
      * intros e [<-|He]; [apply nonneg_bump; exact Nt|auto].
      * intros e [<-|He]; [exact Sc|auto].
      * cbn [pairs_ok]. split; [|exact Cp].
        apply Forall_forall. intros e He. unfold Rst. cbn [fst snd].
        destruct (Ik e He) as [H1|[j [Hj [HF E]]]].
        -- (* e was under (t, Fr): the component i0 that separates t from e is frozen, so it is
              not i, and t + e_i is separated from e by the same component *)
           rewrite Forall_forall in Rt. destruct (Rt e H1) as [[i0 [Hi0 Hlt]] Nle]. cbn [fst snd] in *.
           split.
           ++ exists i0. split; [auto|]. rewrite nth_bump_neq; [exact Hlt|].
              intros ->. rewrite (Is _ Hi0) in HFi. discriminate.
           ++ intros L. apply Nle. eapply le_vec_trans; [apply le_vec_bump|exact L].
        -- (* e = t + e_j is an earlier child: j is frozen since its push, and t + e_i is smaller
              than e at j and larger at i *)
           rewrite E. split.
           ++ exists j. split; [exact HF|]. rewrite nth_bump_neq by lia. rewrite nth_bump_eq by lia. lia.
           ++ intros [_ L]. specialize (L i). rewrite nth_bump_eq in L by lia.
              rewrite nth_bump_neq in L by lia. lia.
  - constructor; auto.
    + intros e He. destruct (Ik e He) as [H1|[j [Hj [HF E]]]]; [left; exact H1|].
      right. exists j. split; [lia|]. auto.
    + constructor; auto.
Qed.

Lemma afor_forinv : forall cnt i F Zs, (i + cnt = m_q A)%nat -> forinv i F Zs ->
  forinv (m_q A) (snd (afor A basis product tzero t i cnt F Zs)) (fst (afor A basis product tzero t i cnt F Zs)).
Proof using Lt LFr Nt St Rt Hsols Htz.
  induction cnt as [|c IH]; intros i F Zs Hic I.
  - simpl. assert (E : i = m_q A) by lia. rewrite <- E at 1. exact I.
  - rewrite afor_step. apply IH; [lia|]. apply forinv_step; [lia|exact I].
Qed.

End ForLoop.

Lemma pairs_ok_tail {T} (R : T -> T -> Prop) a l : pairs_ok R (a :: l) -> pairs_ok R l.
Proof. simpl. tauto. Qed.

Lemma popped_solution A t : length t = m_q A -> nonneg t ->
  all_zero (prod_of A t) && negb (vec_eqb t (vec_zero (m_q A))) = true -> is_solution A t.
Proof.
  intros Lt Nt Ebr. apply Bool.andb_true_iff in Ebr. destruct Ebr as [Ez Enz].
  split; [exact Lt|]. split; [exact Nt|]. split.
  - intros Eq. rewrite Eq in Enz.
    assert (H : vec_eqb (vec_zero (m_q A)) (vec_zero (m_q A)) = true) by (apply vec_eqb_spec; reflexivity).
    rewrite H in Enz. discriminate.
  - apply all_zero_map_solves. exact Ez.
Qed.

Lemma astep_ainv A Zs basis Z' b' : wf_mat A -> ainv A Zs basis -> astep A Zs basis = Some (Z', b') ->
  ainv A Z' b'.
Proof.
  intros Hwf [[Ce Cn Cs Cp] Hs Ha] E. destruct Zs as [|[t Fr] Z1]; [discriminate|].
  unfold astep in E.
  inversion Ce as [|? ? [Lt LFr] Ce1]; subst. cbn [fst snd] in Lt, LFr.
  destruct Cp as [Rt Cp1].
  assert (Nt : nonneg t) by (apply (Cn (t, Fr)); left; reflexivity).
  assert (St : sep t basis) by (apply (Cs (t, Fr)); left; reflexivity).
  destruct (all_zero (prod_of A t) && negb (vec_eqb t (vec_zero (m_q A)))) eqn:Ebr.
  - inversion E; subst Z' b'. clear E.
    pose proof (popped_solution A t Lt Nt Ebr) as Sol.
    constructor.
    + constructor.
      * exact Ce1.
      * intros e He. apply Cn. right. exact He.
      * intros e He b Hb. apply in_app_or in Hb. destruct Hb as [Hb|[<-|[]]].
        -- apply (Cs e); [right; exact He|exact Hb].
        -- rewrite Forall_forall in Rt. destruct (Rt e He) as [[i0 [_ Hlt]] Nle]. cbn [fst] in *.
           split; [|exact Nle]. intros [_ L]. specialize (L i0). lia.
      * exact Cp1.
    + apply Forall_app. split; [exact Hs|]. constructor; [exact Sol|constructor].
    + unfold antichain in *. apply pairs_ok_app. split; [exact Ha|]. split; [simpl; auto|].
      intros a b Ha' [<-|[]]. destruct (St a Ha') as [S1 S2]. split; assumption.
  - inversion E; subst Z' b'. clear E.
    constructor; [|exact Hs|exact Ha].
    assert (I0 : forinv A basis t Fr Z1 0 Fr Z1).
    { constructor; auto.
      constructor; auto.
      - intros e He. apply Cn. right. exact He.
      - intros e He. apply Cs. right. exact He. }
    pose proof (afor_forinv A basis (prod_of A t) (vec_eqb t (vec_zero (m_q A))) t Fr Z1
                  Lt LFr Nt St Rt Hs eq_refl (m_q A) 0%nat Fr Z1 ltac:(lia) I0) as I.
    destruct I as [_ _ _ C]. exact C.
Qed.

Lemma ainv_start A : ainv A (astart A) [].
Proof.
  unfold astart. constructor; [|constructor|exact I].
  constructor.
  - constructor; [|constructor]. split; simpl; [apply vec_zero_length|apply repeat_length].
  - intros e [<-|[]]. intros i. simpl. rewrite nth_vec_zero. lia.
  - intros e _ b [].
  - simpl. auto.
Qed.

Lemma aloop_ainv A : wf_mat A -> forall fuel Zs basis B, ainv A Zs basis -> aloop fuel A Zs basis = Ok B ->
  ainv A [] B.
Proof.
  intros Hwf. induction fuel as [|f IH]; intros Zs basis B I E; [discriminate|].
  cbn [aloop] in E. destruct (astep A Zs basis) as [[Z' b']|] eqn:Es.
  - eapply IH; [|exact E]. eapply astep_ainv; eauto.
  - inversion E; subst. apply astep_None in Es. subst Zs. exact I.
Qed.

Theorem lde_sound A fuel B : wf_mat A -> homogeneous_lde fuel A = Ok B ->
  forall x, In x B -> is_solution A x.
Proof.
  intros Hwf E. unfold homogeneous_lde in E. rewrite lde_refines in E by (auto; constructor).
  pose proof (aloop_ainv A Hwf fuel _ _ B (ainv_start A) E) as [_ Hs _].
  rewrite Forall_forall in Hs. exact Hs.
Qed.

Lemma antichain_incomparable B : antichain B ->
  forall i j x y, nth_error B i = Some x -> nth_error B j = Some y -> i <> j -> ~ le_vec x y.
Proof.
  intros Ha i j x y Hi Hj Nij.
  destruct (Nat.lt_ge_cases i j) as [L|L].
  - destruct (pairs_ok_In _ _ Ha i j x y L Hi Hj) as [H _]. exact H.
  - assert (L' : (j < i)%nat) by lia.
    destruct (pairs_ok_In _ _ Ha j i y x L' Hj Hi) as [_ H]. exact H.
Qed.

Lemma antichain_NoDup B : antichain B -> NoDup B.
Proof.
  induction B as [|a B IH]; intros H; constructor.
  - destruct H as [H _]. rewrite Forall_forall in H. intros Hin. destruct (H a Hin) as [N _].
    apply N. apply le_vec_refl.
  - apply IH. destruct H; assumption.
Qed.

Lemma antichain_le_eq B : antichain B -> forall x y, In x B -> In y B -> le_vec x y -> x = y.
Proof.
  intros Ha x y Hx Hy L.
  apply In_nth_error in Hx. apply In_nth_error in Hy. destruct Hx as [i Hi], Hy as [j Hj].
  destruct (Nat.eq_dec i j) as [->|N]; [congruence|].
  exfalso. exact (antichain_incomparable B Ha i j x y Hi Hj N L).
Qed.

Theorem lde_antichain A fuel B : wf_mat A -> homogeneous_lde fuel A = Ok B ->
  NoDup B /\ forall x y, In x B -> In y B -> le_vec x y -> x = y.
Proof.
  intros Hwf E. unfold homogeneous_lde in E. rewrite lde_refines in E by (auto; constructor).
  pose proof (aloop_ainv A Hwf fuel _ _ B (ainv_start A) E) as [_ _ Ha].
  split; [apply antichain_NoDup; exact Ha | apply antichain_le_eq; exact Ha].
Qed.
