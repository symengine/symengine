(* C46 -- the brute-force enumerator of the model (the completeness oracle of the check)
   is correct: hilbert_box A B is exactly the set of minimal solutions inside [0,B]^q,
   and is_minimal_sol decides minimality.  Also: below every solution lies a minimal one. *)
From SE Require Export C46.LdeBase.
From Coq Require Import Lia.
Local Open Scope Z_scope.

Lemma in_box q B : forall x, In x (box q B) <-> length x = q /\ forall i, 0 <= nth i x 0 <= Z.of_nat B.
Proof.
  induction q as [|k IH]; intros x.
  - simpl. split.
    + intros [<-|[]]. split; [reflexivity|]. intros []; simpl; lia.
    + intros [L _]. destruct x; [left; reflexivity|discriminate].
  - cbn [box]. rewrite in_flat_map. split.
    + intros [v [Hv Hx]]. apply in_map_iff in Hx. destruct Hx as [n [<- Hn]].
      apply IH in Hv. destruct Hv as [L H]. apply in_seq in Hn. split; [simpl; lia|].
      intros [|i]; simpl; [lia|apply H].
    + intros [L H]. destruct x as [|a v]; [discriminate|].
      exists v. split.
      * apply IH. split; [simpl in L; lia|]. intros i. apply (H (S i)).
      * apply in_map_iff. exists (Z.to_nat a). pose proof (H 0%nat) as H0. simpl in H0.
        split; [f_equal; lia|]. apply in_seq. lia.
Qed.

Lemma in_box_below x : nonneg x -> forall y, In y (box_below x) <-> le_vec y x /\ nonneg y.
Proof.
  induction x as [|a x IH]; intros N y.
  - simpl. split.
    + intros [<-|[]]. split; [apply le_vec_refl|]. intros []; simpl; lia.
    + intros [[L _] _]. destruct y; [left; reflexivity|discriminate].
  - assert (Nx : nonneg x) by (intros i; apply (N (S i))).
    pose proof (N 0%nat) as N0. simpl in N0.
    cbn [box_below]. rewrite in_flat_map. split.
    + intros [v [Hv Hy]]. apply in_map_iff in Hy. destruct Hy as [n [<- Hn]].
      apply (IH Nx) in Hv. destruct Hv as [[L H] Nv]. apply in_seq in Hn. split.
      * split; [simpl; lia|]. intros [|i]; simpl; [lia|apply H].
      * intros [|i]; simpl; [lia|apply Nv].
    + intros [[L H] Ny]. destruct y as [|b v]; [discriminate|].
      exists v. split.
      * apply (IH Nx). split; [split; [simpl in L; lia|intros i; apply (H (S i))]|intros i; apply (Ny (S i))].
      * apply in_map_iff. exists (Z.to_nat b). pose proof (H 0%nat) as H0. pose proof (Ny 0%nat) as Ny0.
        simpl in H0, Ny0. split; [f_equal; lia|]. apply in_seq. lia.
Qed.

Lemma is_sol_spec A x : is_sol A x = true <-> solves A x.
Proof.
  unfold is_sol, solves. rewrite forallb_forall, Forall_forall.
  split; intros H r Hr; specialize (H r Hr); apply Z.eqb_eq; exact H.
Qed.

Lemma not_all_zero_spec x : negb (all_zero x) = true <-> x <> vec_zero (length x).
Proof.
  rewrite Bool.negb_true_iff. split.
  - intros H E. apply all_zero_spec in E. congruence.
  - intros H. destruct (all_zero x) eqn:E; auto. apply all_zero_spec in E. contradiction.
Qed.

Lemma nonneg_forallb x : forallb (fun a => 0 <=? a) x = true <-> nonneg x.
Proof.
  unfold nonneg. induction x as [|a x IH]; simpl.
  - split; auto. intros _ []; simpl; lia.
  - rewrite Bool.andb_true_iff, IH, Z.leb_le. split.
    + intros [H1 H2] [|i]; simpl; auto.
    + intros H. split; [apply (H 0%nat)|intros i; apply (H (S i))].
Qed.

(* a solution is minimal or has another solution strictly below it (decided by enumeration) *)
Definition smaller_sol (A : mat) (x y : list Z) : bool := negb (all_zero y) && is_sol A y && lt_vecb y x.

Lemma smaller_sol_spec A x y : is_solution A x -> In y (box_below x) -> smaller_sol A x y = true <->
  is_solution A y /\ le_vec y x /\ y <> x.
Proof.
  intros [Lx [Nx _]] Hy. apply (in_box_below x Nx) in Hy. destruct Hy as [Lyx Ny].
  unfold smaller_sol. rewrite !Bool.andb_true_iff, not_all_zero_spec, is_sol_spec, lt_vecb_spec.
  unfold lt_vec, is_solution. destruct Lyx as [L H]. rewrite L, Lx. intuition.
Qed.

Lemma minimal_iff A x : is_solution A x ->
  (minimal_solution A x <-> existsb (smaller_sol A x) (box_below x) = false).
Proof.
  intros Sx. split.
  - intros [_ Hm]. destruct (existsb (smaller_sol A x) (box_below x)) eqn:E; [|reflexivity]. exfalso.
    apply existsb_exists in E. destruct E as [y [Hy Hs]].
    apply (smaller_sol_spec A x y Sx Hy) in Hs. destruct Hs as [Sy [Ly Ny]]. apply Ny, Hm; assumption.
  - intros E. split; [exact Sx|]. intros y Sy Ly.
    destruct (vec_eqb y x) eqn:Eq; [apply vec_eqb_spec; exact Eq|]. exfalso.
    assert (Hy : In y (box_below x)).
    { destruct Sx as [_ [Nx _]]. apply (in_box_below x Nx). split; [exact Ly|]. destruct Sy as [_ [Ny _]]. exact Ny. }
    assert (Hs : smaller_sol A x y = true).
    { apply (smaller_sol_spec A x y Sx Hy). split; [exact Sy|]. split; [exact Ly|].
      intros ->. assert (vec_eqb x x = true) by (apply vec_eqb_spec; reflexivity). congruence. }
    assert (existsb (smaller_sol A x) (box_below x) = true) by (apply existsb_exists; eauto).
    congruence.
Qed.

Lemma min_or_smaller A x : is_solution A x ->
  minimal_solution A x \/ exists y, is_solution A y /\ le_vec y x /\ y <> x.
Proof.
  intros Sx. destruct (existsb (smaller_sol A x) (box_below x)) eqn:E.
  - right. apply existsb_exists in E. destruct E as [y [Hy Hs]].
    exists y. apply (smaller_sol_spec A x y Sx Hy). exact Hs.
  - left. apply minimal_iff; assumption.
Qed.

Theorem is_minimal_sol_spec A x : is_minimal_sol A x = true <-> minimal_solution A x.
Proof.
  unfold is_minimal_sol. rewrite !Bool.andb_true_iff, not_all_zero_spec, nonneg_forallb, is_sol_spec,
    Nat.eqb_eq, Bool.negb_true_iff.
  fold (smaller_sol A x). split.
  - intros [[[[Nz Nn] Ss] L] E]. apply minimal_iff; [|exact E].
    split; [exact L|split; [exact Nn|split; [rewrite <- L; exact Nz|exact Ss]]].
  - intros M. pose proof M as [Sx _]. pose proof Sx as [L [Nn [Nz Ss]]].
    repeat split; auto; [rewrite L; exact Nz|]. apply minimal_iff; assumption.
Qed.

Lemma in_box_solutions A B x : In x (box_solutions A B) <-> is_solution A x /\ forall i, nth i x 0 <= Z.of_nat B.
Proof.
  unfold box_solutions. rewrite filter_In, in_box, Bool.andb_true_iff, not_all_zero_spec, is_sol_spec.
  unfold is_solution, nonneg. split.
  - intros [[L H] [Nz Ss]]. split; [|intros i; apply H]. rewrite <- L at 2. repeat split; auto. intros i; apply H.
  - intros [[L [Nn [Nz Ss]]] H]. rewrite L. repeat split; auto; try apply Nn; apply H.
Qed.

Theorem hilbert_box_correct A B x :
  In x (hilbert_box A B) <-> minimal_solution A x /\ forall i, nth i x 0 <= Z.of_nat B.
Proof.
  unfold hilbert_box. rewrite filter_In, in_box_solutions, Bool.negb_true_iff. split.
  - intros [[Sx Hb] E]. split; [|exact Hb].
    destruct (min_or_smaller A x Sx) as [M|[y [Sy [Ly Ny]]]]; [exact M|exfalso].
    assert (Hy : In y (box_solutions A B)).
    { apply in_box_solutions. split; [exact Sy|]. intros i. destruct Ly as [_ H]. specialize (H i). specialize (Hb i). lia. }
    assert (existsb (fun y => lt_vecb y x) (box_solutions A B) = true).
    { apply existsb_exists. exists y. split; [exact Hy|]. apply lt_vecb_spec. split; assumption. }
    congruence.
  - intros [[Sx Hm] Hb]. split; [split; assumption|].
    destruct (existsb (fun y => lt_vecb y x) (box_solutions A B)) eqn:E; auto. exfalso.
    apply existsb_exists in E. destruct E as [y [Hy Hl]]. apply in_box_solutions in Hy. destruct Hy as [Sy _].
    apply lt_vecb_spec in Hl. destruct Hl as [Ly Ny]. apply Ny. apply Hm; assumption.
Qed.

(* below every solution there is a minimal one (induction on the sum of the entries) *)
Fixpoint vsum (x : list Z) : Z := match x with [] => 0 | a :: r => a + vsum r end.

Lemma vsum_le x y : le_vec x y -> vsum x <= vsum y /\ (vsum x = vsum y -> x = y).
Proof.
  revert y; induction x as [|a x IH]; intros y [L H]; destruct y as [|b y]; try discriminate.
  - split; [simpl; lia|reflexivity].
  - simpl in L. assert (Lxy : le_vec x y) by (split; [lia|intros i; apply (H (S i))]).
    destruct (IH y Lxy) as [I1 I2]. pose proof (H 0%nat) as H0. simpl in H0. simpl. split; [lia|].
    intros E. assert (a = b) by lia. subst. f_equal. apply I2. lia.
Qed.

Lemma vsum_nonneg x : nonneg x -> 0 <= vsum x.
Proof.
  induction x as [|a x IH]; intros N; simpl; [lia|].
  pose proof (N 0%nat) as N0. simpl in N0. assert (nonneg x) by (intros i; apply (N (S i))). specialize (IH H). lia.
Qed.

Lemma minimal_below A x : is_solution A x -> exists s, minimal_solution A s /\ le_vec s x.
Proof.
  assert (G : forall n x, Z.to_nat (vsum x) = n -> is_solution A x -> exists s, minimal_solution A s /\ le_vec s x).
  { induction n as [n IH] using lt_wf_ind. intros x0 En Sx.
    destruct (min_or_smaller A x0 Sx) as [Hm|[y [Sy [Ly Ny]]]].
    - exists x0. split; [exact Hm|apply le_vec_refl].
    - destruct (vsum_le y x0 Ly) as [V1 V2].
      destruct Sy as [Ly' [Ny' R]]. pose proof (vsum_nonneg y Ny') as P.
      assert (Hlt : (Z.to_nat (vsum y) < n)%nat).
      { assert (vsum y <> vsum x0) by (intros Ev; apply Ny; apply V2; exact Ev). lia. }
      destruct (IH _ Hlt y eq_refl (conj Ly' (conj Ny' R))) as [s [Ms Ls]].
      exists s. split; [exact Ms|eapply le_vec_trans; eauto]. }
  intros Sx. eapply G; eauto.
Qed.
