(* C46 -- the model refines the abstract loop of LdeAbs.v: every index stays in range
   (the stack entry at index k has at least k frozen components, so the stack never
   holds more than q vectors and Frozen[n] is always a row of the q x q matrix). *)
From SE Require Export C46.LdeAbs.
From Coq Require Import Lia.
Local Open Scope Z_scope.

Definition count_true (F : list bool) : nat := length (filter (fun b => b) F).

Lemma count_true_le F : (count_true F <= length F)%nat.
Proof. unfold count_true. induction F as [|[] F]; simpl; lia. Qed.

Lemma count_true_lt F i : (i < length F)%nat -> nth i F false = false -> (count_true F < length F)%nat.
Proof.
  unfold count_true. revert i; induction F as [|b F IH]; intros i L H.
  - simpl in L. lia.
  - destruct i; simpl in H, L.
    + subst. simpl. pose proof (count_true_le F). unfold count_true in *. lia.
    + assert (L' : (i < length F)%nat) by lia. specialize (IH _ L' H). destruct b; simpl; lia.
Qed.

Lemma count_true_set F i : (i < length F)%nat -> nth i F false = false ->
  count_true (set_nth F i true) = S (count_true F).
Proof.
  unfold count_true. revert i; induction F as [|b F IH]; intros i L H.
  - simpl in L. lia.
  - destruct i; simpl in H, L.
    + subst. reflexivity.
    + assert (L' : (i < length F)%nat) by lia. simpl. destruct b; simpl; rewrite (IH _ L' H); reflexivity.
Qed.

Lemma count_true_repeat_false q : count_true (repeat false q) = 0%nat.
Proof. unfold count_true. induction q; simpl; auto. Qed.

Definition shape (q : nat) (Frozen : list (list bool)) : Prop :=
  length Frozen = q /\ Forall (fun r => length r = q) Frozen.

Definition basis_shape (q : nat) (basis : list (list Z)) : Prop := Forall (fun b => length b = q) basis.

Definition entry_ok (q : nat) (e : entry) : Prop := length (fst e) = q /\ length (snd e) = q.

Fixpoint depth_ok (Zs : list entry) : Prop :=
  match Zs with
  | [] => True
  | e :: r => (length r <= count_true (snd e))%nat /\ depth_ok r
  end.

(* row k of Frozen belongs to the stack entry of index k (the head of Zs is the top) *)
Definition frozen_view (Frozen : list (list bool)) (Zs : list entry) : Prop :=
  firstn (length Zs) Frozen = rev (map snd Zs).

Lemma nth_error_firstn_lt {T} (l : list T) k j : (j < k)%nat -> nth_error (firstn k l) j = nth_error l j.
Proof.
  revert k j; induction l; intros k j H; destruct k, j; simpl; auto; try lia.
  apply IHl. lia.
Qed.

Lemma frozen_view_top Frozen e Zs : frozen_view Frozen (e :: Zs) -> nth_error Frozen (length Zs) = Some (snd e).
Proof.
  unfold frozen_view. cbn [length map rev]. intros H.
  rewrite <- (nth_error_firstn_lt Frozen (S (length Zs))) by lia. rewrite H.
  rewrite nth_error_app2 by (rewrite rev_length, map_length; lia).
  rewrite rev_length, map_length, Nat.sub_diag. reflexivity.
Qed.

Lemma frozen_view_pop Frozen e Zs : frozen_view Frozen (e :: Zs) -> frozen_view Frozen Zs.
Proof.
  unfold frozen_view. cbn [length map rev]. intros H.
  assert (E : firstn (length Zs) (firstn (S (length Zs)) Frozen) = firstn (length Zs) Frozen).
  { rewrite firstn_firstn. f_equal. lia. }
  rewrite <- E, H. rewrite firstn_app, rev_length, map_length, Nat.sub_diag. cbn [firstn].
  rewrite app_nil_r.
  replace (length Zs) with (length (rev (map snd Zs))) by (rewrite rev_length, map_length; reflexivity).
  apply firstn_all.
Qed.

Lemma frozen_view_push Frozen Zs T F : frozen_view Frozen Zs -> (length Zs < length Frozen)%nat ->
  frozen_view (set_nth Frozen (length Zs) F) ((T, F) :: Zs).
Proof.
  unfold frozen_view. intros H L. cbn [length map rev snd]. rewrite firstn_S_set_nth by assumption. rewrite H. reflexivity.
Qed.

(* T on entry to iteration i of the for loop is t + e_(i-1) (t itself when i = 0); the body
   adds 1 at i and takes 1 off at i-1, which leaves t + e_i *)
Definition Tprev (t : list Z) (i : nat) : list Z :=
  match i with O => t | S k => bump t k end.

Definition Tnext (Tin : list Z) (i : nat) : list Z :=
  let T1 := set_nth Tin i (nth i Tin 0 + 1) in
  if Nat.ltb 0 i then set_nth T1 (i - 1) (nth (i - 1) T1 0 - 1) else T1.

Lemma Tnext_bump t i : (i < length t)%nat -> Tnext (Tprev t i) i = bump t i.
Proof.
  intros Hi. unfold Tnext. destruct i as [|k]; simpl.
  - reflexivity.
  - rewrite Nat.sub_0_r.
    apply vec_ext.
    + rewrite !set_nth_length, !bump_length. reflexivity.
    + intros j.
      assert (Lk : (k < length t)%nat) by lia.
      destruct (Nat.eq_dec j k) as [->|Njk].
      * rewrite nth_set_nth_eq by (rewrite set_nth_length, bump_length; lia).
        rewrite nth_set_nth_neq by lia. rewrite nth_bump_eq by lia.
        rewrite nth_bump_neq by lia. lia.
      * rewrite nth_set_nth_neq by assumption.
        destruct (Nat.eq_dec j (S k)) as [->|Njk'].
        -- rewrite nth_set_nth_eq by (rewrite bump_length; lia).
           rewrite nth_bump_neq by lia. rewrite nth_bump_eq by lia. reflexivity.
        -- rewrite nth_set_nth_neq by assumption. rewrite !nth_bump_neq by assumption. reflexivity.
Qed.

Lemma Tprev_length t i : length (Tprev t i) = length t.
Proof. destruct i; simpl; auto. apply bump_length. Qed.

(* The state of the for loop at index i seen as (F, Zs).  [fv_count] and [fv_depth] carry the
   depth bound: there are no more stack entries than frozen components in F, and likewise under
   every entry.  A push needs an unfrozen component, so the stack then holds fewer than q
   entries ([count_true_lt]) and Frozen[n] exists. *)
Record fview (q : nat) (t : list Z) (i : nat) (s : fstate) (F : list bool) (Zs : list entry) : Prop := {
  fv_T : fT s = Tprev t i;
  fv_F : fF s = F;
  fv_Flen : length F = q;
  fv_P : fP s = map fst Zs;
  fv_n : fn s = length Zs;
  fv_shape : shape q (fFrozen s);
  fv_view : frozen_view (fFrozen s) Zs;
  fv_count : (length Zs <= count_true F)%nat;
  fv_depth : depth_ok Zs;
  fv_entries : Forall (entry_ok q) Zs
}.

Definition fnext (A : mat) basis product tzero t i (F : list bool) (Zs : list entry) : list entry * list bool :=
  if push_cond A basis product tzero t F i then ((bump t i, F) :: Zs, set_nth F i true) else (Zs, F).

Lemma afor_step A basis product tzero t i c F Zs :
  afor A basis product tzero t i (S c) F Zs =
  afor A basis product tzero t (S i) c (snd (fnext A basis product tzero t i F Zs)) (fst (fnext A basis product tzero t i F Zs)).
Proof. unfold fnext. cbn [afor]. destruct (push_cond A basis product tzero t F i); reflexivity. Qed.

Lemma for_body_refines A basis t tzero i s F Zs :
  wf_mat A -> length t = m_q A -> basis_shape (m_q A) basis ->
  (i < m_q A)%nat -> fview (m_q A) t i s F Zs ->
  exists s', for_body A basis (prod_of A t) tzero i s = Ok s' /\
             fview (m_q A) t (S i) s' (snd (fnext A basis (prod_of A t) tzero t i F Zs))
                                      (fst (fnext A basis (prod_of A t) tzero t i F Zs)).
Proof.
  intros Hwf Lt Hb Hi V. destruct V as [VT VF VFl VP Vn [Vs1 Vs2] Vv Vc Vd Ve].
  unfold for_body.
  assert (LT : length (fT s) = m_q A) by (rewrite VT, Tprev_length; exact Lt).
  rewrite (vget_nth _ _ 0) by lia. cbn [bind].
  rewrite vset_ok by lia. cbn [bind].
  assert (ET : (if Nat.ltb 0 i
                then bind (vget (set_nth (fT s) i (nth i (fT s) 0 + 1)) (i - 1))
                       (fun Tp => vset (set_nth (fT s) i (nth i (fT s) 0 + 1)) (i - 1) (Tp - 1))
                else Ok (set_nth (fT s) i (nth i (fT s) 0 + 1))) = Ok (bump t i)).
  { rewrite <- (Tnext_bump t i) by lia. unfold Tnext. rewrite <- VT.
    destruct (Nat.ltb_spec 0 i); [|reflexivity].
    rewrite (vget_nth _ _ 0) by (rewrite set_nth_length; lia). cbn [bind].
    rewrite vset_ok by (rewrite set_nth_length; lia). reflexivity. }
  rewrite ET. cbn [bind].
  rewrite dot_col_spec by assumption. cbn [bind].
  rewrite VF. rewrite (vget_nth _ _ false) by lia. cbn [bind].
  assert (EP : (if nth i F false then Ok false
                else if colsum (m_rows A) (prod_of A t) i <? 0
                     then bind (is_minimum (bump t i) basis (length basis))
                            (fun m => if m then Ok true else Ok tzero)
                     else Ok tzero) = Ok (push_cond A basis (prod_of A t) tzero t F i)).
  { unfold push_cond. destruct (nth i F false); [reflexivity|]. cbn [negb andb].
    destruct (colsum (m_rows A) (prod_of A t) i <? 0); [|reflexivity].
    rewrite is_minimum_full.
    - cbn [bind andb]. destruct (amin (bump t i) basis); reflexivity.
    - eapply Forall_impl; [|exact Hb]. simpl. intros b Lb. rewrite bump_length. lia. }
  rewrite EP. cbn [bind]. unfold fnext.
  destruct (push_cond A basis (prod_of A t) tzero t F i) eqn:Epc.
  - (* pushed *)
    assert (HFi : nth i F false = false).
    { unfold push_cond in Epc. destruct (nth i F false); [discriminate|reflexivity]. }
    assert (LiF : (i < length F)%nat) by lia.
    assert (Hn : (length Zs < m_q A)%nat).
    { pose proof (count_true_lt F i LiF HFi). lia. }
    rewrite Vn. cbn [Nat.sub]. rewrite Nat.sub_0_r.
    destruct (nth_error (fFrozen s) (length Zs)) as [row|] eqn:Erow;
      [|apply nth_error_None in Erow; lia].
    assert (Lrow : length row = m_q A).
    { rewrite Forall_forall in Vs2. apply Vs2. eapply nth_error_In; eauto. }
    assert (ES : store_F (fFrozen s) (length Zs) F 0 (m_q A) = Ok (set_nth (fFrozen s) (length Zs) F)).
    { rewrite <- VFl. apply (store_F_full F (length Zs) (fFrozen s) row Erow). lia. }
    rewrite ES. cbn [bind].
    rewrite vset_ok by lia. cbn [bind].
    eexists. split; [reflexivity|]. cbn [fst snd].
    constructor; cbn [fT fF fP fn fFrozen].
    + reflexivity.
    + reflexivity.
    + rewrite set_nth_length. exact VFl.
    + simpl. rewrite VP. reflexivity.
    + reflexivity.
    + split; [rewrite set_nth_length; exact Vs1|]. apply Forall_set_nth; auto.
    + apply frozen_view_push; auto. lia.
    + rewrite (count_true_set F i LiF HFi). simpl. lia.
    + simpl. split; auto.
    + constructor; auto. split; simpl; [rewrite bump_length; exact Lt | exact VFl].
  - eexists. split; [reflexivity|]. cbn [fst snd].
    constructor; cbn [fT fF fP fn fFrozen]; auto. split; auto.
Qed.

Lemma for_loop_refines A basis t tzero : 
  wf_mat A -> length t = m_q A -> basis_shape (m_q A) basis ->
  forall cnt i s F Zs, (i + cnt = m_q A)%nat -> fview (m_q A) t i s F Zs ->
  exists s', for_loop A basis (prod_of A t) tzero i cnt s = Ok s' /\
             fview (m_q A) t (m_q A) s' (snd (afor A basis (prod_of A t) tzero t i cnt F Zs))
                                        (fst (afor A basis (prod_of A t) tzero t i cnt F Zs)).
Proof.
  intros Hwf Lt Hb. induction cnt as [|c IH]; intros i s F Zs Hic V.
  - exists s. split; [reflexivity|]. simpl. assert (E : i = m_q A) by lia. rewrite <- E at 2. exact V.
  - destruct (for_body_refines A basis t tzero i s F Zs Hwf Lt Hb ltac:(lia) V) as [s1 [E1 V1]].
    cbn [for_loop]. rewrite E1. cbn [bind]. rewrite afor_step.
    apply IH; [lia | exact V1].
Qed.

(* For q = 0 [init_state] leaves Frozen = [] although the stack holds one (empty) vector, so
   [frozen_view] fails; no row of Frozen is read or written then, every loop running 0 times. *)
Record wview (q : nat) (s : wstate) (Zs : list entry) : Prop := {
  wv_P : wP s = map fst Zs;
  wv_shape : shape q (wFrozen s);
  wv_view : q = 0%nat \/ frozen_view (wFrozen s) Zs;
  wv_F : length (wF s) = q;
  wv_depth : depth_ok Zs;
  wv_entries : Forall (entry_ok q) Zs
}.

Lemma while_body_refines A s Zs :
  wf_mat A -> basis_shape (m_q A) (wbasis s) -> wview (m_q A) s Zs ->
  match astep A Zs (wbasis s) with
  | None => while_body A s = None
  | Some (Z', b') =>
      exists s', while_body A s = Some (Ok s') /\ wview (m_q A) s' Z' /\ wbasis s' = b' /\
                 basis_shape (m_q A) b'
  end.
Proof.
  intros Hwf Hb V. destruct V as [VP Vs Vv VF Vd Ve].
  destruct Zs as [|[t Fr] Z1].
  - simpl. unfold while_body. rewrite VP. reflexivity.
  - unfold astep, while_body. rewrite VP. cbn [map fst length].
    inversion Ve as [|? ? [Lt LFr] Ve1]; subst. cbn [fst snd] in Lt, LFr.
    destruct Vd as [Vd0 Vd1]. cbn [snd] in Vd0.
    rewrite mul_matrix_spec by assumption. cbn [bind].
    destruct (all_zero (prod_of A t) && negb (vec_eqb t (vec_zero (m_q A)))) eqn:Ebr.
    + eexists. split; [reflexivity|]. split; [|split; [reflexivity|]].
      * constructor; cbn [wP wFrozen wF]; auto.
        destruct Vv as [Vv|Vv]; [left; exact Vv | right; eapply frozen_view_pop; eauto].
      * cbn [wbasis]. apply Forall_app. split; auto.
    + cbn [Nat.sub]. rewrite Nat.sub_0_r, map_length.
      destruct (Nat.eq_dec (m_q A) 0) as [Eq0|Nq0].
      * assert (EL : load_F (wFrozen s) (length Z1) (wF s) 0 (m_q A) = Ok (wF s))
          by (rewrite Eq0; reflexivity).
        rewrite EL. cbn [bind].
        assert (EF : forall s0, for_loop A (wbasis s) (prod_of A t) (vec_eqb t (vec_zero (m_q A))) 0 (m_q A) s0 = Ok s0)
          by (intros; rewrite Eq0; reflexivity).
        rewrite EF. cbn [bind fP fFrozen fF].
        assert (EA : afor A (wbasis s) (prod_of A t) (vec_eqb t (vec_zero (m_q A))) t 0 (m_q A) Fr Z1 = (Z1, Fr))
          by (rewrite Eq0; reflexivity).
        rewrite EA. cbn [fst].
        eexists. split; [reflexivity|]. split; [|split; [reflexivity|exact Hb]].
        constructor; cbn [wP wFrozen wF]; auto.
      * destruct Vv as [Vv|Vv]; [contradiction|].
        pose proof (frozen_view_top _ _ _ Vv) as Htop. cbn [snd] in Htop.
        assert (EL : load_F (wFrozen s) (length Z1) (wF s) 0 (m_q A) = Ok Fr).
        { rewrite <- VF. apply load_F_full; auto. lia. }
        rewrite EL. cbn [bind].
        set (s0 := {| fT := t; fF := Fr; fP := map fst Z1; fn := length Z1; fFrozen := wFrozen s |}).
        assert (V0 : fview (m_q A) t 0 s0 Fr Z1).
        { constructor; cbn [fT fF fP fn fFrozen s0]; auto. eapply frozen_view_pop; eauto. }
        destruct (for_loop_refines A (wbasis s) t (vec_eqb t (vec_zero (m_q A))) Hwf Lt Hb
                    (m_q A) 0%nat s0 Fr Z1 ltac:(lia) V0) as [s1 [E1 V1]].
        rewrite E1. cbn [bind].
        eexists. split; [reflexivity|]. split; [|split; [reflexivity|exact Hb]].
        destruct V1 as [WT WF WFl WP Wn Ws Wv Wc Wd We].
        constructor; cbn [wP wFrozen wF]; auto. rewrite WF. exact WFl.
Qed.

Lemma lde_loop_refines A : wf_mat A ->
  forall fuel s Zs, basis_shape (m_q A) (wbasis s) -> wview (m_q A) s Zs ->
  lde_loop fuel A s = aloop fuel A Zs (wbasis s).
Proof.
  intros Hwf. induction fuel as [|f IH]; intros s Zs Hb V.
  - reflexivity.
  - cbn [lde_loop aloop].
    pose proof (while_body_refines A s Zs Hwf Hb V) as R.
    destruct (astep A Zs (wbasis s)) as [[Z' b']|].
    + destruct R as [s' [E [V' [Eb Hb']]]]. rewrite E. cbn [bind]. subst b'. apply IH; auto.
    + rewrite R. reflexivity.
Qed.

Lemma init_state_refines A basis0 :
  exists s0, init_state A basis0 = Ok s0 /\ wview (m_q A) s0 (astart A) /\ wbasis s0 = basis0.
Proof.
  unfold init_state.
  assert (Ez : exists Fz, init_frozen (repeat (repeat true (m_q A)) (m_q A)) 0 (m_q A) = Ok Fz /\
                 shape (m_q A) Fz /\ (m_q A = 0%nat \/ frozen_view Fz (astart A))).
  { destruct (m_q A) as [|k] eqn:Eq.
    - exists []. split; [reflexivity|]. split; [split; [reflexivity|constructor]|left; reflexivity].
    - eexists. split.
      + cbn [repeat].
        pose proof (init_frozen_spec (true :: repeat true k)
                     ((true :: repeat true k) :: repeat (true :: repeat true k) k) [] eq_refl) as E.
        cbn [length app] in E. rewrite repeat_length in E. exact E.
      + split.
        * split.
          -- rewrite set_nth_length. simpl. rewrite repeat_length. reflexivity.
          -- apply Forall_set_nth.
             ++ change (Forall (fun r : list bool => length r = S k) (repeat (repeat true (S k)) (S k))).
                apply Forall_forall. intros r Hr. apply repeat_spec in Hr. subst. apply repeat_length.
             ++ simpl. rewrite repeat_length. reflexivity.
        * right. unfold frozen_view, astart. rewrite Eq. reflexivity. }
  destruct Ez as [Fz [E [Hs Hv]]]. rewrite E. cbn [bind].
  eexists. split; [reflexivity|]. split; [|reflexivity].
  constructor; cbn [wP wFrozen wF]; auto.
  - apply repeat_length.
  - unfold astart. simpl. rewrite count_true_repeat_false. auto.
  - unfold astart. constructor; [|constructor]. split; simpl; [apply vec_zero_length | apply repeat_length].
Qed.

Theorem lde_refines A fuel basis0 : wf_mat A -> basis_shape (m_q A) basis0 ->
  lde_from fuel A basis0 = aloop fuel A (astart A) basis0.
Proof.
  intros Hwf Hb. unfold lde_from.
  destruct (init_state_refines A basis0) as [s0 [E [V Eb]]].
  rewrite E. cbn [bind]. rewrite <- Eb in Hb |- *. apply lde_loop_refines; auto.
Qed.

Lemma aloop_no_oob fuel A Zs basis : aloop fuel A Zs basis = ErrFuel \/ exists B, aloop fuel A Zs basis = Ok B.
Proof.
  revert Zs basis; induction fuel as [|f IH]; intros Zs basis; cbn [aloop].
  - left; reflexivity.
  - destruct (astep A Zs basis) as [[Z' b']|]; [apply IH | right; eexists; reflexivity].
Qed.

(* every index used by the function is in range, also with rows of the right width already
   in `basis` on entry *)
Theorem lde_from_in_bounds A fuel basis0 : wf_mat A -> basis_shape (m_q A) basis0 ->
  lde_from fuel A basis0 = ErrFuel \/ exists B, lde_from fuel A basis0 = Ok B.
Proof.
  intros Hwf Hb. rewrite lde_refines by assumption. apply aloop_no_oob.
Qed.

Theorem lde_indices_in_bounds A fuel : wf_mat A ->
  homogeneous_lde fuel A = ErrFuel \/ exists B, homogeneous_lde fuel A = Ok B.
Proof.
  intros Hwf. apply lde_from_in_bounds; [exact Hwf | constructor].
Qed.
