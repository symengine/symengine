(* C46 -- the checked loops of the model computed as pure functions, and an abstract
   version of the while loop (a stack of pairs (vector, frozen set), no Frozen matrix,
   no indices) that the model refines whenever the input is well formed.  The
   refinement is the in-bounds theorem: the abstract loop has no out-of-range case. *)
From SE Require Export C46.LdeBase.
From Coq Require Import Lia.
Local Open Scope Z_scope.

Notation entry := (list Z * list bool)%type.

(* sum_r P_r * A[r][j] *)
Fixpoint colsum (rows : list (list Z)) (P : list Z) (j : nat) : Z :=
  match rows, P with
  | r :: rs, p0 :: Ps => p0 * nth j r 0 + colsum rs Ps j
  | _, _ => 0
  end.

Definition prod_of (A : mat) (t : list Z) : list Z := map (fun r => dotZ r t) (m_rows A).

(* [is_minimum T basis (length basis)] as one boolean ([is_minimum_full]): no basis element
   is strictly below T *)
Definition amin (T : list Z) (basis : list (list Z)) : bool :=
  forallb (fun b => negb (lt_vecb b T)) basis.

(* the condition of the `if` in [for_body] at component i, with [product] = A t and T = t + e_i:
   F[i] == false and ((dot < 0 and is_minimum(T, basis, basis.size())) or t.eq(row_zero)) *)
Definition push_cond (A : mat) (basis : list (list Z)) (product : list Z) (tzero : bool)
           (t : list Z) (F : list bool) (i : nat) : bool :=
  negb (nth i F false) && (((colsum (m_rows A) product i <? 0) && amin (bump t i) basis) || tzero).

(* [for_loop] on the stack of pairs: a push puts t + e_i on the stack together with F as it is
   before F[i] is set (what [store_F] writes into the new entry's row of Frozen), then sets F[i] *)
Fixpoint afor (A : mat) (basis : list (list Z)) (product : list Z) (tzero : bool) (t : list Z)
         (i cnt : nat) (F : list bool) (Zs : list entry) : list entry * list bool :=
  match cnt with
  | O => (Zs, F)
  | S c =>
      if push_cond A basis product tzero t F i
      then afor A basis product tzero t (S i) c (set_nth F i true) ((bump t i, F) :: Zs)
      else afor A basis product tzero t (S i) c F Zs
  end.

(* [while_body]: the popped entry carries its row Fr of Frozen (what [load_F] reads back into F);
   a non-zero t with A t = 0 goes to the basis, any other t is expanded by the for loop *)
Definition astep (A : mat) (Zs : list entry) (basis : list (list Z)) : option (list entry * list (list Z)) :=
  match Zs with
  | [] => None
  | (t, Fr) :: Z1 =>
      let product := prod_of A t in
      let tzero := vec_eqb t (vec_zero (m_q A)) in
      if all_zero product && negb tzero then Some (Z1, basis ++ [t])
      else Some (fst (afor A basis product tzero t 0 (m_q A) Fr Z1), basis)
  end.

Fixpoint aloop (fuel : nat) (A : mat) (Zs : list entry) (basis : list (list Z)) : res (list (list Z)) :=
  match fuel with
  | O => ErrFuel
  | S f =>
      match astep A Zs basis with
      | None => Ok basis
      | Some (Z', b') => aloop f A Z' b'
      end
  end.

Definition astart (A : mat) : list entry := [(vec_zero (m_q A), repeat false (m_q A))].

Lemma astep_None A Zs basis : astep A Zs basis = None -> Zs = [].
Proof.
  destruct Zs as [|[t Fr] Z1]; [reflexivity|]. unfold astep.
  destruct (all_zero (prod_of A t) && negb (vec_eqb t (vec_zero (m_q A)))); discriminate.
Qed.

(* The checked loops of the model, one `_spec` lemma each, all of one shape: the container the
   loop walks is split as done ++ todo, the index argument is [length done] and the count
   argument is [length todo]; the lemma for the whole loop takes done = []. *)

Lemma mul_row_spec A t r row : nth_error (m_rows A) r = Some row ->
  forall r2 r1 t1 t2 acc, row = r1 ++ r2 -> t = t1 ++ t2 -> length r1 = length t1 -> length r2 = length t2 ->
  mul_row A t r (length r1) (length r2) acc = Ok (acc + dotZ r2 t2).
Proof.
  intros Hrow. induction r2 as [|a r2 IH]; intros r1 t1 t2 acc Er Et L1 L2.
  - destruct t2; [|discriminate]. simpl. f_equal. lia.
  - destruct t2 as [|x t2]; [discriminate|].
    cbn [mul_row length]. unfold mget. rewrite (vget_nth_error _ _ _ Hrow). cbn [bind].
    subst row t. rewrite vget_app. cbn [bind]. rewrite L1, vget_app. cbn [bind].
    replace (S (length t1)) with (length (r1 ++ [a])) by (rewrite app_length; simpl; lia).
    rewrite (IH (r1 ++ [a]) (t1 ++ [x]) t2).
    + f_equal. simpl. lia.
    + rewrite <- app_assoc. reflexivity.
    + rewrite <- app_assoc. reflexivity.
    + rewrite !app_length. simpl. lia.
    + simpl in L2. lia.
Qed.

Lemma mul_rows_spec A t : Forall (fun r => length r = length t) (m_rows A) ->
  m_q A = length t ->
  forall rs2 rs1, m_rows A = rs1 ++ rs2 ->
  mul_rows A t (length rs1) (length rs2) = Ok (map (fun r => dotZ r t) rs2).
Proof.
  intros Hall Hq. induction rs2 as [|row rs2 IH]; intros rs1 E.
  - reflexivity.
  - cbn [mul_rows length map].
    assert (Hrow : nth_error (m_rows A) (length rs1) = Some row).
    { rewrite E, nth_error_app2 by lia. rewrite Nat.sub_diag. reflexivity. }
    assert (Lrow : length row = length t).
    { rewrite Forall_forall in Hall. apply Hall. rewrite E. apply in_or_app. right. left. reflexivity. }
    rewrite Hq, <- Lrow.
    change 0%nat with (@length Z []).
    rewrite (mul_row_spec A t (length rs1) row Hrow row [] [] t 0); auto.
    cbn [bind].
    replace (S (length rs1)) with (length (rs1 ++ [row])) by (rewrite app_length; simpl; lia).
    rewrite IH by (rewrite <- app_assoc; exact E).
    cbn [bind]. reflexivity.
Qed.

Lemma mul_matrix_spec A t : wf_mat A -> length t = m_q A -> mul_matrix A t = Ok (prod_of A t).
Proof.
  intros [Hp Hr] Ht. unfold mul_matrix, prod_of. rewrite <- Hp.
  change 0%nat with (@length (list Z) []).
  apply mul_rows_spec with (rs1 := []); auto.
  eapply Forall_impl; [|exact Hr]. simpl. intros. congruence.
Qed.

Lemma dot_loop_spec A product i :
  forall rs2 rs1 P1 P2 acc, m_rows A = rs1 ++ rs2 -> product = P1 ++ P2 ->
  length rs1 = length P1 -> length rs2 = length P2 ->
  Forall (fun r => (i < length r)%nat) rs2 ->
  dot_loop A product i (length rs1) (length rs2) acc = Ok (acc + colsum rs2 P2 i).
Proof.
  induction rs2 as [|row rs2 IH]; intros rs1 P1 P2 acc E EP L1 L2 Hi.
  - simpl. f_equal. lia.
  - destruct P2 as [|pj P2]; [discriminate|].
    cbn [dot_loop length colsum]. subst product. rewrite L1, vget_app. cbn [bind].
    unfold mget. rewrite E, <- L1, vget_app. cbn [bind].
    inversion Hi; subst.
    rewrite (vget_nth _ _ 0) by assumption. cbn [bind].
    replace (S (length rs1)) with (length (rs1 ++ [row])) by (rewrite app_length; simpl; lia).
    rewrite (IH (rs1 ++ [row]) (P1 ++ [pj]) P2).
    + f_equal. lia.
    + rewrite <- app_assoc. exact E.
    + rewrite <- app_assoc. reflexivity.
    + rewrite !app_length. simpl. lia.
    + simpl in L2. lia.
    + assumption.
Qed.

Lemma dot_col_spec A t i : wf_mat A -> (i < m_q A)%nat ->
  dot_col A (prod_of A t) i = Ok (colsum (m_rows A) (prod_of A t) i).
Proof.
  intros [Hp Hr] Hi. unfold dot_col. rewrite <- Hp.
  change 0%nat with (@length (list Z) []).
  rewrite (dot_loop_spec A (prod_of A t) i (m_rows A) [] [] (prod_of A t) 0); auto.
  - unfold prod_of. rewrite map_length. reflexivity.
  - eapply Forall_impl; [|exact Hr]. simpl. intros. lia.
Qed.

Lemma order_loop_spec t basis k bk : nth_error basis k = Some bk ->
  forall t2 t1 b1 b2 eq, t = t1 ++ t2 -> bk = b1 ++ b2 -> length t1 = length b1 -> length t2 = length b2 ->
  order_loop t basis k (length t1) (length t2) eq = Ok (le_vecb b2 t2 && negb (eq && vec_eqb b2 t2)).
Proof.
  intros Hk. induction t2 as [|x t2 IH]; intros t1 b1 b2 eq Et Eb L1 L2.
  - destruct b2; [|discriminate]. simpl. rewrite Bool.andb_true_r. reflexivity.
  - destruct b2 as [|y b2]; [discriminate|].
    cbn [order_loop length]. subst t. rewrite vget_app. cbn [bind].
    rewrite (vget_nth_error _ _ _ Hk). cbn [bind]. subst bk. rewrite L1, vget_app. cbn [bind].
    cbn [le_vecb vec_eqb].
    destruct (Z.ltb_spec x y) as [Hlt|Hge].
    + destruct (Z.leb_spec y x); [lia|]. reflexivity.
    + replace (S (length b1)) with (length (t1 ++ [x])) by (rewrite app_length; simpl; lia).
      rewrite (IH (t1 ++ [x]) (b1 ++ [y]) b2).
      * destruct (Z.leb_spec y x); [|lia]. cbn [andb].
        unfold Z.gtb. destruct (Z.compare_spec x y) as [E|E|E]; try lia.
        -- subst. rewrite Z.eqb_refl. reflexivity.
        -- destruct (Z.eqb_spec y x); [lia|]. cbn [andb]. rewrite Bool.andb_false_r. reflexivity.
      * rewrite <- app_assoc. reflexivity.
      * rewrite <- app_assoc. reflexivity.
      * rewrite !app_length. simpl. lia.
      * simpl in L2. lia.
Qed.

Lemma order_spec t basis k bk : nth_error basis k = Some bk -> length bk = length t ->
  order t basis k = Ok (lt_vecb bk t).
Proof.
  intros Hk L. unfold order.
  change 0%nat with (@length Z []).
  rewrite (order_loop_spec t basis k bk Hk t [] [] bk true); auto.
Qed.

Lemma firstn_snoc {T} (l : list T) k x : nth_error l k = Some x -> firstn (S k) l = firstn k l ++ [x].
Proof.
  revert k; induction l; intros k H; destruct k; simpl in *; try discriminate.
  - inversion H; reflexivity.
  - f_equal. apply IHl. exact H.
Qed.

Lemma amin_app T b1 b2 : amin T (b1 ++ b2) = amin T b1 && amin T b2.
Proof. unfold amin. apply forallb_app. Qed.

Lemma is_minimum_spec t basis : Forall (fun b => length b = length t) basis ->
  forall n, (n <= length basis)%nat -> is_minimum t basis n = Ok (amin t (firstn n basis)).
Proof.
  intros Hall. induction n as [|k IH]; intros Hn.
  - reflexivity.
  - cbn [is_minimum].
    destruct (nth_error basis k) as [bk|] eqn:Hk; [|apply nth_error_None in Hk; lia].
    assert (L : length bk = length t).
    { rewrite Forall_forall in Hall. apply Hall. eapply nth_error_In; eauto. }
    rewrite (order_spec t basis k bk Hk L). cbn [bind].
    rewrite (firstn_snoc _ _ _ Hk), amin_app. unfold amin at 2. cbn [forallb].
    rewrite Bool.andb_true_r.
    destruct (lt_vecb bk t); cbn [negb].
    + rewrite Bool.andb_false_r. reflexivity.
    + rewrite Bool.andb_true_r. apply IH. lia.
Qed.

Lemma is_minimum_full t basis : Forall (fun b => length b = length t) basis ->
  is_minimum t basis (length basis) = Ok (amin t basis).
Proof.
  intros. rewrite is_minimum_spec by auto. rewrite firstn_all. reflexivity.
Qed.

Lemma load_F_spec (Frozen : list (list bool)) n row : nth_error Frozen n = Some row ->
  forall r2 r1 f1 f2, row = r1 ++ r2 -> length r1 = length f1 -> length r2 = length f2 ->
  load_F Frozen n (f1 ++ f2) (length f1) (length f2) = Ok (f1 ++ r2).
Proof.
  intros Hn. induction r2 as [|x r2 IH]; intros r1 f1 f2 E L1 L2.
  - destruct f2; [|discriminate]. reflexivity.
  - destruct f2 as [|y f2]; [discriminate|].
    cbn [load_F length]. rewrite (vget_nth_error _ _ _ Hn). cbn [bind].
    subst row. rewrite <- L1, vget_app. cbn [bind]. rewrite L1, vset_app. cbn [bind].
    replace (S (length f1)) with (length (f1 ++ [x])) by (rewrite app_length; simpl; lia).
    replace (f1 ++ x :: f2) with ((f1 ++ [x]) ++ f2) by (rewrite <- app_assoc; reflexivity).
    rewrite (IH (r1 ++ [x]) (f1 ++ [x]) f2).
    + rewrite <- app_assoc. reflexivity.
    + rewrite <- app_assoc. reflexivity.
    + rewrite !app_length. simpl. lia.
    + simpl in L2. lia.
Qed.

Lemma load_F_full (Frozen : list (list bool)) n row F : nth_error Frozen n = Some row ->
  length row = length F -> load_F Frozen n F 0 (length F) = Ok row.
Proof.
  intros Hn L. change 0%nat with (@length bool []). change F with ([] ++ F) at 1.
  rewrite (load_F_spec Frozen n row Hn row [] [] F); auto.
Qed.

Lemma set_nth_same {T} (l : list T) m x : nth_error l m = Some x -> set_nth l m x = l.
Proof.
  revert m; induction l; intros m H; destruct m; simpl in *; try discriminate.
  - inversion H; reflexivity.
  - f_equal. apply IHl. exact H.
Qed.

Lemma nth_error_lt {T} (l : list T) m x : nth_error l m = Some x -> (m < length l)%nat.
Proof. intros H. apply nth_error_Some. congruence. Qed.

Lemma store_F_spec (F : list bool) m :
  forall f2 (Frozen : list (list bool)) w1 w2 f1, nth_error Frozen m = Some (w1 ++ w2) -> F = f1 ++ f2 ->
  length w1 = length f1 -> length w2 = length f2 ->
  store_F Frozen m F (length f1) (length f2) = Ok (set_nth Frozen m (w1 ++ f2)).
Proof.
  induction f2 as [|x f2 IH]; intros Frozen w1 w2 f1 Hm EF L1 L2.
  - destruct w2; [|discriminate]. simpl. rewrite set_nth_same; auto.
  - destruct w2 as [|y w2]; [discriminate|].
    cbn [store_F length]. subst F. rewrite vget_app. cbn [bind].
    rewrite (vget_nth_error _ _ _ Hm). cbn [bind].
    rewrite <- L1, vset_app. cbn [bind].
    rewrite vset_ok by (eapply nth_error_lt; eauto). cbn [bind].
    replace (S (length w1)) with (length (f1 ++ [x])) by (rewrite app_length; simpl; lia).
    rewrite (IH (set_nth Frozen m (w1 ++ x :: w2)) (w1 ++ [x]) w2 (f1 ++ [x])).
    + rewrite set_nth_set_nth. rewrite <- app_assoc. reflexivity.
    + rewrite nth_error_set_nth_eq by (eapply nth_error_lt; eauto). rewrite <- app_assoc. reflexivity.
    + rewrite <- app_assoc. reflexivity.
    + rewrite !app_length. simpl. lia.
    + simpl in L2. lia.
Qed.

Lemma store_F_full (F : list bool) m (Frozen : list (list bool)) row : nth_error Frozen m = Some row ->
  length row = length F -> store_F Frozen m F 0 (length F) = Ok (set_nth Frozen m F).
Proof.
  intros Hm L. change 0%nat with (@length bool []).
  rewrite (store_F_spec F m F Frozen [] row []); auto.
Qed.

Lemma init_frozen_spec :
  forall w2 (Frozen : list (list bool)) w1, nth_error Frozen 0 = Some (w1 ++ w2) ->
  init_frozen Frozen (length w1) (length w2) = Ok (set_nth Frozen 0 (w1 ++ repeat false (length w2))).
Proof.
  induction w2 as [|y w2 IH]; intros Frozen w1 H0.
  - simpl. rewrite set_nth_same; auto.
  - cbn [init_frozen length]. rewrite (vget_nth_error _ _ _ H0). cbn [bind].
    rewrite vset_app. cbn [bind].
    rewrite vset_ok by (eapply nth_error_lt; eauto). cbn [bind].
    replace (S (length w1)) with (length (w1 ++ [false])) by (rewrite app_length; simpl; lia).
    rewrite (IH (set_nth Frozen 0 (w1 ++ false :: w2)) (w1 ++ [false])).
    + rewrite set_nth_set_nth. rewrite <- app_assoc. reflexivity.
    + rewrite nth_error_set_nth_eq by (eapply nth_error_lt; eauto). rewrite <- app_assoc. reflexivity.
Qed.
