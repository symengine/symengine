(* C46 -- completeness of the abstract loop (Contejean-Devie): a run that ends has put
   every minimal solution into the basis.  Invariant: a minimal solution s is in the
   basis, or some stack entry (t, Fr) lies below s and agrees with s on the frozen
   components.  Such an entry always has a child with the same property, because
   <A t, A (s - t)> = -|A t|^2 < 0 gives a component j with t_j < s_j and
   <A t, A e_j> < 0, and no basis element can lie strictly below t + e_j <= s. *)
From SE Require Export C46.LdeInv.
From Coq Require Import Lia.
Local Open Scope Z_scope.

(* wsum d f k = sum_j d_j * f (k + j) *)
Fixpoint wsum (d : list Z) (f : nat -> Z) (k : nat) : Z :=
  match d with
  | [] => 0
  | a :: d' => a * f k + wsum d' f (S k)
  end.

Lemma wsum_ext d f g k : (forall j, f j = g j) -> wsum d f k = wsum d g k.
Proof. revert k; induction d; intros k H; simpl; auto. rewrite H, (IHd (S k) H). reflexivity. Qed.

Lemma wsum_zero d k : wsum d (fun _ => 0) k = 0.
Proof. revert k; induction d; intros k; simpl; auto. rewrite IHd. lia. Qed.

Lemma wsum_lin d c f g k : wsum d (fun j => c * f j + g j) k = c * wsum d f k + wsum d g k.
Proof. revert k; induction d; intros k; simpl; [lia|]. rewrite IHd. lia. Qed.

Lemma skipn_nth_error {T} (r : list T) : forall k x, nth_error r k = Some x -> skipn k r = x :: skipn (S k) r.
Proof.
  induction r; intros k x E; destruct k; simpl in *; try discriminate.
  - inversion E; reflexivity.
  - apply IHr. exact E.
Qed.

Lemma wsum_nth d : forall r k, length r = (k + length d)%nat -> wsum d (fun j => nth j r 0) k = dotZ (skipn k r) d.
Proof.
  induction d as [|a d IH]; intros r k L.
  - simpl. destruct (skipn k r); reflexivity.
  - simpl in L. cbn [wsum]. rewrite IH by lia.
    assert (Hk : (k < length r)%nat) by lia.
    destruct (nth_error r k) as [x|] eqn:E; [|apply nth_error_None in E; lia].
    pose proof (nth_error_nth _ _ 0 E) as En.
    rewrite (skipn_nth_error r k x E), En. simpl. lia.
Qed.

Lemma wsum_neg d f : (forall j, 0 <= nth j d 0) -> forall k, wsum d f k < 0 ->
  exists j, (j < length d)%nat /\ 0 < nth j d 0 /\ f (k + j)%nat < 0.
Proof.
  induction d as [|a d IH]; intros N k H.
  - simpl in H. lia.
  - cbn [wsum] in H.
    destruct (Z_lt_le_dec (a * f k) 0) as [Hneg|Hpos].
    + exists 0%nat. simpl. rewrite Nat.add_0_r. pose proof (N 0%nat) as N0. simpl in N0. split; [apply Nat.lt_0_succ|]. clear -Hneg N0.
      assert (Ha : 0 < a) by (destruct (Z.eq_dec a 0) as [->|]; lia).
      split; [exact Ha|]. destruct (Z_lt_le_dec (f k) 0); [assumption|].
      assert (0 <= a * f k) by (apply Z.mul_nonneg_nonneg; lia). lia.
    + destruct (IH (fun j => N (S j)) (S k)) as [j [Hj [Hd Hf]]]; [lia|].
      exists (S j). simpl. split; [lia|]. split; [exact Hd|].
      replace (k + S j)%nat with (S k + j)%nat by lia. exact Hf.
Qed.

Lemma wsum_colsum d : forall rows P, Forall (fun r => length r = length d) rows -> length P = length rows ->
  wsum d (colsum rows P) 0 = dotZ P (map (fun r => dotZ r d) rows).
Proof.
  induction rows as [|r rows IH]; intros P Hr LP.
  - destruct P; [|discriminate]. simpl. transitivity (wsum d (fun _ => 0) 0); [apply wsum_ext; intros; reflexivity | apply wsum_zero].
  - destruct P as [|p0 P]; [discriminate|]. inversion Hr; subst.
    transitivity (wsum d (fun j => p0 * (fun j => nth j r 0) j + colsum rows P j) 0); [apply wsum_ext; intros; reflexivity|].
    rewrite wsum_lin, IH by (auto; simpl in LP; lia).
    rewrite wsum_nth by (simpl; lia). simpl. reflexivity.
Qed.

Fixpoint vsub (x y : list Z) : list Z :=
  match x, y with
  | a :: x', b :: y' => (a - b) :: vsub x' y'
  | _, _ => []
  end.

Lemma vsub_length x y : length x = length y -> length (vsub x y) = length x.
Proof. revert y; induction x; destruct y; simpl; intros; try lia. rewrite IHx; lia. Qed.

Lemma nth_vsub x y j : length x = length y -> nth j (vsub x y) 0 = nth j x 0 - nth j y 0.
Proof.
  revert y j; induction x; destruct y; simpl; intros j L; try discriminate.
  - destruct j; reflexivity.
  - destruct j; [reflexivity|]. apply IHx. lia.
Qed.

Lemma dotZ_vsub r x y : length x = length y -> dotZ r (vsub x y) = dotZ r x - dotZ r y.
Proof.
  revert x y; induction r; intros x y L; [destruct x, y; reflexivity|].
  destruct x, y; simpl in *; try discriminate; [lia|]. rewrite IHr by lia. lia.
Qed.

Lemma dotZ_self_neg rows s t : Forall (fun r => dotZ r s = 0) rows -> length s = length t ->
  dotZ (map (fun r => dotZ r t) rows) (map (fun r => dotZ r (vsub s t)) rows)
  = - dotZ (map (fun r => dotZ r t) rows) (map (fun r => dotZ r t) rows).
Proof.
  intros H L. induction rows as [|r rows IH]; [reflexivity|].
  inversion H; subst. simpl. rewrite IH by assumption. rewrite dotZ_vsub by assumption. nia.
Qed.

Lemma dotZ_self_pos P : all_zero P = false -> 0 < dotZ P P.
Proof.
  assert (G : forall Q, 0 <= dotZ Q Q) by (induction Q; simpl; nia).
  induction P as [|a P IH]; simpl; intros H; [discriminate|].
  destruct (Z.eqb_spec a 0).
  - subst. simpl in H. specialize (IH H). lia.
  - pose proof (G P). nia.
Qed.

(* the geometric step of Contejean-Devie *)
Lemma descent A s t : wf_mat A -> length t = m_q A -> length s = m_q A ->
  le_vec t s -> solves A s -> all_zero (prod_of A t) = false ->
  exists j, (j < m_q A)%nat /\ nth j t 0 < nth j s 0 /\ colsum (m_rows A) (prod_of A t) j < 0.
Proof.
  intros [Hp Hr] Lt Ls [_ Hle] Hs Hnz.
  set (d := vsub s t).
  assert (Ld : length d = m_q A) by (unfold d; rewrite vsub_length; lia).
  assert (Hw : wsum d (colsum (m_rows A) (prod_of A t)) 0 < 0).
  { rewrite wsum_colsum.
    - unfold prod_of, d. rewrite dotZ_self_neg by (auto; lia).
      pose proof (dotZ_self_pos _ Hnz). unfold prod_of in H. lia.
    - eapply Forall_impl; [|exact Hr]. simpl. intros. lia.
    - unfold prod_of. apply map_length. }
  destruct (wsum_neg d (colsum (m_rows A) (prod_of A t))) with (k := 0%nat) as [j [Hj [Hd Hf]]].
  - intros j. unfold d. rewrite nth_vsub by lia. specialize (Hle j). lia.
  - exact Hw.
  - exists j. split; [lia|]. unfold d in Hd. rewrite nth_vsub in Hd by lia. split; [lia|exact Hf].
Qed.

Lemma find_lt t s : forall q, (exists j, (j < q)%nat /\ nth j t 0 < nth j s 0) \/ (forall j, (j < q)%nat -> ~ nth j t 0 < nth j s 0).
Proof.
  induction q as [|q IH].
  - right. intros j Hj. lia.
  - destruct IH as [[j [Hj H]]|IH].
    + left. exists j. split; [lia|exact H].
    + destruct (Z_lt_le_dec (nth q t 0) (nth q s 0)) as [H|H].
      * left. exists q. split; [lia|exact H].
      * right. intros j Hj. destruct (Nat.eq_dec j q) as [->|N]; [lia|]. apply IH. lia.
Qed.

Definition compat (s : list Z) (e : entry) : Prop :=
  le_vec (fst e) s /\ forall j, nth j (snd e) false = true -> nth j (fst e) 0 = nth j s 0.

Definition cinv (s : list Z) (Zs : list entry) (basis : list (list Z)) : Prop :=
  In s basis \/ exists e, In e Zs /\ compat s e.

Lemma afor_incl A basis product tzero t : forall cnt i F Zs e, In e Zs ->
  In e (fst (afor A basis product tzero t i cnt F Zs)).
Proof.
  induction cnt as [|c IH]; intros i F Zs e He; [exact He|].
  cbn [afor]. destruct (push_cond A basis product tzero t F i); apply IH; [right|]; exact He.
Qed.

Lemma le_vec_bump_le t s i : le_vec t s -> nth i t 0 < nth i s 0 -> le_vec (bump t i) s.
Proof.
  intros [L H] Hi. split; [rewrite bump_length; exact L|].
  intros j. destruct (Nat.eq_dec j i) as [->|N].
  - destruct (Nat.ltb_spec i (length t)).
    + rewrite nth_bump_eq by assumption. lia.
    + unfold bump. rewrite nth_set_nth. destruct (Nat.ltb_spec i (length t)); [lia|].
      rewrite Bool.andb_false_r. apply H.
  - rewrite nth_bump_neq by assumption. apply H.
Qed.

Section ForLoopC.
Variable A : mat.
Variable basis : list (list Z).
Variable t s : list Z.
Variable Fr : list bool.

Hypothesis Hwf : wf_mat A.
Hypothesis Lt : length t = m_q A.
Hypothesis Hmin : minimal_solution A s.
Hypothesis Hsols : Forall (is_solution A) basis.
Hypothesis Hts : le_vec t s.

Let product := prod_of A t.
Let tzero := vec_eqb t (vec_zero (m_q A)).

(* either a child compatible with s has been pushed, or s is still compatible with
   (t, F) and no component below i on which t < s could have been pushed *)
Definition cfor (i : nat) (F : list bool) (Zs : list entry) : Prop :=
  (exists e, In e Zs /\ compat s e) \/
  (compat s (t, F) /\
   forall j, (j < i)%nat -> nth j t 0 < nth j s 0 -> ~ (colsum (m_rows A) product j < 0) /\ tzero = false).

Lemma cfor_step i F Zs : (i < m_q A)%nat -> length F = m_q A -> cfor i F Zs ->
  cfor (S i) (snd (fnext A basis product tzero t i F Zs)) (fst (fnext A basis product tzero t i F Zs)).
Proof using Lt Hmin Hsols Hts.
  intros Hi LF [[e [He Ce]]|[[_ Cf] Hno]]; unfold fnext.
  - left. exists e. split; [|exact Ce].
    destruct (push_cond A basis product tzero t F i); cbn [fst]; [right|]; exact He.
  - cbn [fst snd] in Cf.
    destruct (Z_lt_le_dec (nth i t 0) (nth i s 0)) as [Hlt|Hge].
    + (* i is a component on which t < s: it is not frozen *)
      assert (HFi : nth i F false = false).
      { destruct (nth i F false) eqn:E; auto. specialize (Cf i E). lia. }
      destruct (push_cond A basis product tzero t F i) eqn:Epc; cbn [fst snd].
      * left. exists (bump t i, F). split; [left; reflexivity|]. split; cbn [fst snd].
        -- apply le_vec_bump_le; assumption.
        -- intros j Hj. rewrite nth_bump_neq; [apply Cf; exact Hj|]. intros ->. congruence.
      * right. split; [split; [exact Hts|exact Cf]|].
        intros j Hj Hjs. destruct (Nat.eq_dec j i) as [->|N]; [|apply Hno; [lia|exact Hjs]].
        (* not pushed although not frozen: the test failed *)
        unfold push_cond in Epc. rewrite HFi in Epc. cbn [negb andb] in Epc.
        apply Bool.orb_false_iff in Epc. destruct Epc as [E1 E2]. split; [|exact E2].
        intros Hneg. apply Bool.andb_false_iff in E1. destruct E1 as [E1|E1].
        -- apply Z.ltb_ge in E1. fold product in Hneg. lia.
        -- (* is_minimum cannot fail below a minimal solution *)
           assert (Ea : amin (bump t i) basis = true).
           { apply amin_intro. intros b Hb [Lb Nb].
             assert (Lbs : le_vec b s) by (eapply le_vec_trans; [exact Lb|apply le_vec_bump_le; assumption]).
             rewrite Forall_forall in Hsols. destruct Hmin as [_ Hm].
             pose proof (Hm b (Hsols b Hb) Lbs) as Eb. subst b.
             apply Nb. apply le_vec_antisym; [exact Lb|apply le_vec_bump_le; assumption]. }
           congruence.
    + (* t_i = s_i: pushing i keeps s compatible with (t, F) *)
      assert (Ei : nth i t 0 = nth i s 0) by (destruct Hts as [_ H]; specialize (H i); lia).
      destruct (push_cond A basis product tzero t F i) eqn:Epc; cbn [fst snd].
      * right. split.
        -- split; [exact Hts|]. cbn [fst snd]. intros j Hj.
           destruct (Nat.eq_dec j i) as [E|N].
           ++ subst j. exact Ei.
           ++ rewrite nth_set_nth_neq in Hj by exact N. apply Cf. exact Hj.
        -- intros j Hj Hjs. destruct (Nat.eq_dec j i) as [->|N]; [lia|apply Hno; [lia|exact Hjs]].
      * right. split; [split; [exact Hts|exact Cf]|].
        intros j Hj Hjs. destruct (Nat.eq_dec j i) as [->|N]; [lia|apply Hno; [lia|exact Hjs]].
Qed.

Lemma fnext_len i F Zs : length F = m_q A -> length (snd (fnext A basis product tzero t i F Zs)) = m_q A.
Proof using Type.
  intros L. unfold fnext. destruct (push_cond A basis product tzero t F i); cbn [snd]; [rewrite set_nth_length|]; exact L.
Qed.

Lemma afor_cfor : forall cnt i F Zs, (i + cnt = m_q A)%nat -> length F = m_q A -> cfor i F Zs ->
  cfor (m_q A) (snd (afor A basis product tzero t i cnt F Zs)) (fst (afor A basis product tzero t i cnt F Zs)).
Proof using Lt Hmin Hsols Hts.
  induction cnt as [|c IH]; intros i F Zs Hic LF C.
  - simpl. assert (E : i = m_q A) by lia. rewrite <- E at 1. exact C.
  - rewrite afor_step. apply IH; [lia|apply fnext_len; exact LF|]. apply cfor_step; [lia|exact LF|exact C].
Qed.

(* at the end of the for loop the second alternative is impossible *)
Lemma cfor_end F Zs : t <> s -> all_zero product && negb tzero = false ->
  cfor (m_q A) F Zs -> exists e, In e Zs /\ compat s e.
Proof using Hwf Lt Hmin Hts.
  intros Nts Ebr [H|[_ Hno]]; [exact H|]. exfalso.
  destruct Hmin as [[Ls [Ns [Nzs Ss]]] _].
  apply Bool.andb_false_iff in Ebr. destruct Ebr as [Ez|Ez].
  - destruct (descent A s t Hwf Lt Ls Hts Ss Ez) as [j [Hj [Hlt Hneg]]].
    destruct (Hno j Hj Hlt) as [H _]. apply H. exact Hneg.
  - apply Bool.negb_false_iff in Ez.
    (* t = 0 <> s: some component of s is positive *)
    assert (Ex : exists j, (j < m_q A)%nat /\ nth j t 0 < nth j s 0).
    { destruct (find_lt t s (m_q A)) as [H|H].
      - exact H.
      - exfalso. apply Nts. apply vec_ext; [lia|]. intros j.
        destruct (Nat.ltb_spec j (m_q A)).
        + destruct Hts as [_ Hle]. specialize (Hle j). specialize (H j). lia.
        + rewrite !nth_overflow by lia. reflexivity. }
    destruct Ex as [j [Hj Hlt]]. destruct (Hno j Hj Hlt) as [_ H]. rewrite H in Ez. discriminate.
Qed.

End ForLoopC.

Lemma astep_cinv A Zs basis Z' b' s : wf_mat A -> ainv A Zs basis -> minimal_solution A s ->
  cinv s Zs basis -> astep A Zs basis = Some (Z', b') -> cinv s Z' b'.
Proof.
  intros Hwf [[Ce Cn _ _] Hs _] Hmin C E.
  destruct Zs as [|[t Fr] Z1]; [discriminate|]. unfold astep in E.
  inversion Ce as [|? ? [Lt LFr] Ce1]; subst. cbn [fst snd] in Lt, LFr.
  assert (Nt : nonneg t) by (apply (Cn (t, Fr)); left; reflexivity).
  destruct (all_zero (prod_of A t) && negb (vec_eqb t (vec_zero (m_q A)))) eqn:Ebr.
  - inversion E; subst Z' b'. clear E.
    destruct C as [C|[e [[<-|He] Ce']]].
    + left. apply in_or_app. left. exact C.
    + (* the popped vector is a solution below s: it is s *)
      left. apply in_or_app. right. left.
      destruct Ce' as [Lts _]. cbn [fst] in Lts.
      destruct Hmin as [_ Hm]. apply Hm; [|exact Lts].
      exact (popped_solution A t Lt Nt Ebr).
    + right. exists e. split; [exact He|exact Ce'].
  - inversion E; subst Z' b'. clear E.
    destruct C as [C|[e [[<-|He] Ce']]].
    + left. exact C.
    + right. destruct Ce' as [Lts Cf]. cbn [fst snd] in Lts, Cf.
      assert (Nts : t <> s).
      { intros ->. destruct Hmin as [[Ls [Ns [Nzs Ss]]] _].
        rewrite (solves_all_zero _ _ Ss) in Ebr. cbn [andb] in Ebr.
        apply Bool.negb_false_iff in Ebr. apply vec_eqb_spec in Ebr. contradiction. }
      assert (C0 : cfor A t s 0 Fr Z1).
      { right. split; [split; [exact Lts|exact Cf]|]. intros j Hj. lia. }
      pose proof (afor_cfor A basis t s Lt Hmin Hs Lts (m_q A) 0%nat Fr Z1 ltac:(lia) LFr C0) as C1.
      exact (cfor_end A t s Hwf Lt Hmin Lts _ _ Nts Ebr C1).
    + right. exists e. split; [apply afor_incl; exact He|exact Ce'].
Qed.

Lemma aloop_cinv A s : wf_mat A -> minimal_solution A s ->
  forall fuel Zs basis B, ainv A Zs basis -> cinv s Zs basis -> aloop fuel A Zs basis = Ok B -> In s B.
Proof.
  intros Hwf Hmin. induction fuel as [|f IH]; intros Zs basis B I C E; [discriminate|].
  cbn [aloop] in E. destruct (astep A Zs basis) as [[Z' b']|] eqn:Es.
  - eapply IH; [| |exact E].
    + eapply astep_ainv; eauto.
    + eapply astep_cinv; eauto.
  - inversion E; subst. apply astep_None in Es. subst Zs.
    destruct C as [C|[e [[] _]]]. exact C.
Qed.

Theorem lde_complete A fuel B : wf_mat A -> homogeneous_lde fuel A = Ok B ->
  forall s, minimal_solution A s -> In s B.
Proof.
  intros Hwf E s Hmin. unfold homogeneous_lde in E. rewrite lde_refines in E by (auto; constructor).
  apply (aloop_cinv A s Hwf Hmin fuel _ _ B (ainv_start A)); [|exact E].
  right. exists (vec_zero (m_q A), repeat false (m_q A)). split; [left; reflexivity|].
  destruct Hmin as [[Ls [Ns _]] _]. split; cbn [fst snd].
  - apply le_vec_zero; assumption.
  - intros j Hj. rewrite nth_repeat in Hj. discriminate.
Qed.

