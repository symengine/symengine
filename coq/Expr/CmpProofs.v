(* C02: compare is a three-way comparison with range {-1,0,1}, zero exactly on eq, antisymmetric
   and transitive on well-formed expressions; RCPBasicKeyLess is a strict weak order whose
   incomparability is eq; the ordered container is independent of the insertion order. *)
From SE Require Export Expr.Keyless.
From Coq Require Import Lia Permutation.
Local Open Scope Z_scope.

(* the range needs no well-formedness: it holds at every fuel *)
Lemma cmp_range_f : forall f a b, in_range (cmp f a b).
Proof.
  induction f; intros a b; cbn [cmp]; [right; left; reflexivity|].
  destruct (negb (type_code a =? type_code b)%N);
    [destruct (type_code a <? type_code b)%N; unfold in_range; auto|].
  destruct a; destruct b; try (right; left; reflexivity);
    rewrite ?pairs_sized_cmp_flat; cbv zeta; unfold Ncmp;
    repeat match goal with
    | |- in_range (if ?c then _ else _) => destruct c
    end;
    first [ apply IHf | apply num_cmp_same_range | apply num_cmp_range | apply bytes_cmp_range
          | apply Zcmp_range | apply sized_cmp_range; intros; apply IHf
          | apply numpairs_sized_cmp_range; intros; apply IHf
          | unfold in_range; lia ].
Qed.

Theorem cmp_range :
  forall a b : expr, expr_cmp a b = (-1)%Z \/ expr_cmp a b = 0%Z \/ expr_cmp a b = 1%Z.
Proof. intros. apply cmp_range_f. Qed.

Lemma expr_cmp_range : forall a b, in_range (expr_cmp a b).
Proof. exact cmp_range. Qed.

(* the comparison within each class written as a [lexZ] of its keys *)
Lemma neg_lex : forall t u, (if negb (t =? 0) then t else u) = lexZ t u.
Proof. intros. unfold lexZ. destruct (t =? 0); reflexivity. Qed.
Lemma f2_lex : forall (e : bool) t u, (t = 0 <-> e = true) -> (if negb e then t else u) = lexZ t u.
Proof.
  intros e t u H. unfold lexZ. destruct e; cbn [negb].
  - destruct H as [_ H]. rewrite (H eq_refl). reflexivity.
  - destruct (Z.eqb_spec t 0) as [E|E]; [apply H in E; discriminate | reflexivity].
Qed.
Lemma funsym_lex : forall n1 n2 u,
  (if bytes_cmp n1 n2 =? 0 then u else if bytes_cmp n1 n2 =? -1 then -1 else 1) = lexZ (bytes_cmp n1 n2) u.
Proof. intros. apply ite_lex; [apply bytes_cmp_range | | ]; symmetry; apply Z.eqb_eq. Qed.

Definition boolcmp (x y : bool) : Z := if x then (if y then 0 else 1) else (if y then -1 else 0).
(* an open left end comes first, an open right end last *)
Lemma interval_lex : forall lo1 lo2 ro1 ro2 u,
  (if lo1 && negb lo2 then -1 else if negb lo1 && lo2 then 1
   else if ro1 && negb ro2 then 1 else if negb ro1 && ro2 then -1 else u) =
  lexZ (boolcmp (negb lo1) (negb lo2)) (lexZ (boolcmp ro1 ro2) u).
Proof. intros. destruct lo1, lo2, ro1, ro2; reflexivity. Qed.

Lemma boolcmp_range : forall a b, in_range (boolcmp a b).
Proof. unfold in_range. destruct a, b; cbn; lia. Qed.
Lemma boolcmp_antisym : forall a b, boolcmp a b = - boolcmp b a.
Proof. destruct a, b; reflexivity. Qed.
Lemma boolcmp_zero : forall a b, boolcmp a b = 0 <-> Bool.eqb a b = true.
Proof. destruct a, b; cbn; split; intros; try reflexivity; discriminate. Qed.
Lemma boolcmp_FTz : forall a b c, FTz (boolcmp a b) (boolcmp b c) (boolcmp a c).
Proof. unfold FTz. destruct a, b, c; cbn; lia. Qed.
Lemma eqb_negb_negb : forall a b, Bool.eqb (negb a) (negb b) = Bool.eqb a b.
Proof. destruct a, b; reflexivity. Qed.

(* [cmp_same] on two nodes of one class, brought into a chain of [lexZ] *)
Ltac norm :=
  cbn [cmp_same]; cbv zeta; unfold bytes_eqb;
  rewrite ?natcmp_lex, ?neg_lex, ?interval_lex;
  repeat match goal with
  | |- context[if ?t =? 0 then ?u else ?t] => change (if t =? 0 then u else t) with (lexZ t u)
  end.

(* entries of the sorted dictionary of a well-formed sum *)
Lemma add_entry_P : forall n c d p, wf (EAdd c d) = true -> (size (EAdd c d) < S n)%nat ->
  In p (map_of_umap expr_eqb expr_cmp d) -> Pn n (fst p) /\ num_wf (snd p) = true.
Proof.
  intros n c d p W S H. apply map_of_umap_in in H. apply (proj1 (add_dict_ok n c d W S) p H).
Qed.
Lemma add_sorted_nwf : forall n c d, wf (EAdd c d) = true -> (size (EAdd c d) < S n)%nat ->
  nwf (map_of_umap expr_eqb expr_cmp d).
Proof. intros n c d W S p Hp. apply (add_entry_P n c d p W S Hp). Qed.

Lemma expr_eqb_tc : forall a b, expr_eqb a b = true -> type_code a = type_code b.
Proof.
  intros a b. rewrite expr_eqb_unfold.
  destruct a; destruct b; cbn [eqb_body type_code]; intros H; try discriminate H; try reflexivity;
    split_hyps; try reflexivity.
  destruct n, n0; cbn [num_eqb] in H; try discriminate H; reflexivity.
Qed.

(* the key of an entry of the sorted dictionary of a well-formed sum of size < S n is in [Pn n] *)
Ltac entryP :=
  match goal with
  | Hp : In ?p (map_of_umap _ _ ?d), W : wf (EAdd ?c ?d) = true, S : (size (EAdd ?c ?d) < _)%nat
    |- Pn _ (fst ?p) => exact (proj1 (add_entry_P _ c d p W S Hp))
  end.

Section Step.
  Variable n : nat.
  Hypothesis IHA : forall x y, Pn n x -> Pn n y -> expr_cmp x y = - expr_cmp y x.
  Hypothesis IHE : forall x y, Pn n x -> Pn n y -> (expr_cmp x y = 0 <-> expr_eqb x y = true).
  Hypothesis IHT : forall x y z, Pn n x -> Pn n y -> Pn n z -> FT expr_cmp x y z.

  Lemma Pn_wf : forall x, Pn n x -> wf x = true.
  Proof. intros x [W _]. exact W. Qed.

  (* the comparison of two-argument nodes: first arguments unless eq, then second *)
  Ltac f2norm :=
    repeat match goal with
    | |- context[if negb (expr_eqb ?x ?y) then expr_cmp ?x ?y else ?u] =>
        rewrite (f2_lex (expr_eqb x y) (expr_cmp x y) u (IHE x y ltac:(solveP) ltac:(solveP)))
    end.

  Lemma step_A : forall a b, wf a = true -> wf b = true ->
    (size a < S n)%nat -> (size b < S n)%nat -> expr_cmp a b = - expr_cmp b a.
  Proof using IHA IHE.
    intros a b Wa Wb Sa Sb. rewrite !expr_cmp_lex.
    apply lexZ_antisym_tied; [apply Ncmp_antisym | intros Htc].
    apply Ncmp_zero, N.eqb_eq in Htc. symmetry in Htc.
    pose proof (wf_same_kind a b Wa Wb Htc) as K.
    destruct a; destruct b; cbn [ctor_kind] in K; try discriminate K; clear K;
      cbn [type_code] in Htc; norm; rewrite ?funsym_lex; f2norm;
      repeat apply lexZ_antisym;
      first [ reflexivity
            | apply natcmp_antisym
            | apply num_cmp_antisym; num_side
            | apply num_cmp_same_antisym; num_side
            | apply bytes_cmp_antisym
            | apply Ncmp_antisym
            | apply boolcmp_antisym
            | apply IHA; solveP
            | apply sized_cmp_antisym; intros; apply IHA; solveP
            | apply numpairs_sized_cmp_antisym;
              [ eapply add_sorted_nwf; eassumption | eapply add_sorted_nwf; eassumption
              | intros p q Hp Hq; apply IHA; entryP ] ].
  Qed.

  Lemma step_E_add : forall c d c0 d0, wf (EAdd c d) = true -> wf (EAdd c0 d0) = true ->
    (size (EAdd c d) < S n)%nat -> (size (EAdd c0 d0) < S n)%nat ->
    (length d = length d0 /\ num_cmp c c0 = 0 /\
     numpairs_sized_cmp expr_cmp (map_of_umap expr_eqb expr_cmp d) (map_of_umap expr_eqb expr_cmp d0) = 0
     <-> num_eqb c c0 = true /\ umap_eqb expr_eqb d d0 = true).
  Proof using IHA IHE IHT.
    intros c d c0 d0 Wa Wb Sa Sb.
    pose proof (add_dict_ok n c d Wa Sa) as OK1. pose proof (add_dict_ok n c0 d0 Wb Sb) as OK2.
    rewrite (num_cmp_eq_iff c c0) by num_side.
    split.
    - intros [L [C Xz]]. split; [exact C|].
      apply (sorted_eq_iff (Pn n) Pn_wf expr_cmp_range IHA IHE IHT d d0 OK1 OK2 L). exact Xz.
    - intros [C U].
      assert (L : length d = length d0).
      { unfold umap_eqb in U. apply andb_prop in U. destruct U as [U _]. apply Nat.eqb_eq in U. exact U. }
      repeat split; auto.
      apply (sorted_eq_iff (Pn n) Pn_wf expr_cmp_range IHA IHE IHT d d0 OK1 OK2 L). exact U.
  Qed.

  Lemma step_E : forall a b, wf a = true -> wf b = true ->
    (size a < S n)%nat -> (size b < S n)%nat -> (expr_cmp a b = 0 <-> expr_eqb a b = true).
  Proof using IHA IHE IHT.
    intros a b Wa Wb Sa Sb. rewrite expr_cmp_lex, lexZ_zero, Ncmp_zero, N.eqb_eq.
    enough (K : type_code a = type_code b -> (cmp_same a b = 0 <-> expr_eqb a b = true)).
    { pose proof (expr_eqb_tc a b). tauto. }
    intros Htc. rewrite expr_eqb_unfold.
    pose proof (wf_same_kind a b Wa Wb Htc) as K.
    destruct a; destruct b; cbn [ctor_kind] in K; try discriminate K; clear K;
      cbn [type_code] in Htc; cbn [eqb_body]; norm; rewrite ?funsym_lex; f2norm;
      rewrite ?lexZ_zero, ?andb_true_iff, ?natcmp_zero;
      first [ apply num_cmp_same_eq_iff; [num_side | num_side | exact Htc]
            | apply boolcmp_zero
            | apply step_E_add; assumption
            | try (subst; rewrite N.eqb_refl);
              repeat match goal with
              | |- context[expr_cmp ?x ?y = 0] => rewrite (IHE x y ltac:(solveP) ltac:(solveP))
              | |- context[sized_cmp expr_cmp ?l1 ?l2 = 0] =>
                  rewrite (sized_cmp_eq_iff expr_cmp expr_eqb l1 l2) by (intros; apply IHE; solveP)
              | |- context[num_cmp ?x ?y = 0] => rewrite (num_cmp_eq_iff x y) by num_side
              end;
              rewrite ?Ncmp_zero, ?boolcmp_zero, ?eqb_negb_negb, ?Z.eqb_eq;
              first [ tauto
                    | split; [tauto|]; intros [A B]; repeat split; auto;
                      apply list_eqb_length in B; rewrite !length_flat in B; lia ] ].
  Qed.

  Lemma step_T : forall a b c, wf a = true -> wf b = true -> wf c = true ->
    (size a < S n)%nat -> (size b < S n)%nat -> (size c < S n)%nat -> FT expr_cmp a b c.
  Proof using IHE IHT.
    intros a b c Wa Wb Wc Sa Sb Sc. unfold FT. rewrite !expr_cmp_lex.
    apply FTz_lex; [apply Ncmp_FTz | intros H1 H2].
    apply Ncmp_zero, N.eqb_eq in H1. apply Ncmp_zero, N.eqb_eq in H2.
    pose proof (wf_same_kind a b Wa Wb H1) as K1. pose proof (wf_same_kind b c Wb Wc H2) as K2.
    destruct a; destruct b; cbn [ctor_kind] in K1; try discriminate K1;
      destruct c; cbn [ctor_kind] in K2; try discriminate K2; clear K1 K2;
      cbn [type_code] in H1, H2; norm; rewrite ?funsym_lex; f2norm;
      repeat match goal with
      | |- FTz (lexZ _ _) (lexZ _ _) (lexZ _ _) => apply FTz_lex; [|intros _ _]
      end;
      first [ apply natcmp_FTz
            | apply num_cmp_FT; num_side
            | apply num_cmp_same_FT; [num_side | num_side | num_side | exact H1 | exact H2]
            | apply bytes_cmp_FT
            | apply Ncmp_FTz | apply boolcmp_FTz
            | apply IHT; solveP
            | apply sized_cmp_FT; intros; apply IHT; solveP
            | apply numpairs_sized_cmp_FT;
              [ eapply add_sorted_nwf; eassumption | eapply add_sorted_nwf; eassumption
              | eapply add_sorted_nwf; eassumption
              | intros p q r Hp Hq Hr; apply IHT; entryP ]
            | unfold FTz; lia ].
  Qed.
End Step.

Lemma cmp_all : forall n,
  (forall x y, Pn n x -> Pn n y -> expr_cmp x y = - expr_cmp y x) /\
  (forall x y, Pn n x -> Pn n y -> (expr_cmp x y = 0 <-> expr_eqb x y = true)) /\
  (forall x y z, Pn n x -> Pn n y -> Pn n z -> FT expr_cmp x y z).
Proof.
  induction n as [|n [IA [IE IT]]].
  - unfold Pn. repeat split; intros; exfalso; lia.
  - split; [|split].
    + intros x y [Wx Sx] [Wy Sy]. apply (step_A n); auto.
    + intros x y [Wx Sx] [Wy Sy]. apply (step_E n); auto.
    + intros x y z [Wx Sx] [Wy Sy] [Wz Sz]. apply (step_T n); auto.
Qed.

Theorem cmp_antisym :
  forall a b : expr, wf a = true -> wf b = true -> expr_cmp a b = (- expr_cmp b a)%Z.
Proof.
  intros a b Wa Wb. apply (proj1 (cmp_all (big a b b))); unfold Pn, big; (split; [assumption|lia]).
Qed.

Theorem cmp_eq_iff :
  forall a b : expr, wf a = true -> wf b = true ->
    (expr_cmp a b = 0%Z <-> expr_eqb a b = true).
Proof.
  intros a b Wa Wb. apply (proj1 (proj2 (cmp_all (big a b b)))); unfold Pn, big; (split; [assumption|lia]).
Qed.

Lemma cmp_FT : forall a b c, wf a = true -> wf b = true -> wf c = true -> FT expr_cmp a b c.
Proof.
  intros a b c Wa Wb Wc.
  apply (proj2 (proj2 (cmp_all (big a b c)))); unfold Pn, big; (split; [assumption|lia]).
Qed.

Theorem cmp_trans :
  forall a b c : expr, wf a = true -> wf b = true -> wf c = true ->
    expr_cmp a b = (-1)%Z -> expr_cmp b c = (-1)%Z -> expr_cmp a c = (-1)%Z.
Proof. intros a b c Wa Wb Wc. apply (cmp_FT a b c Wa Wb Wc). Qed.

Definition Pwf (x : expr) : Prop := wf x = true.
Lemma Pwf_wf : forall x, Pwf x -> wf x = true.
Proof. intros x H. exact H. Qed.

Theorem keyless_strict_weak_order :
  (forall a, wf a = true -> expr_keyless a a = false) /\
  (forall a b c, wf a = true -> wf b = true -> wf c = true ->
     expr_keyless a b = true -> expr_keyless b c = true -> expr_keyless a c = true) /\
  (forall a b, wf a = true -> wf b = true ->
     (expr_keyless a b = false /\ expr_keyless b a = false <-> expr_eqb a b = true)).
Proof.
  unfold expr_keyless. repeat split.
  - intros a Wa. apply (kl_irrefl Pwf Pwf_wf); auto.
  - intros a b c Wa Wb Wc. apply (kl_trans Pwf Pwf_wf expr_cmp_range cmp_antisym cmp_eq_iff cmp_FT); auto.
  - intros [A B]. apply (kl_total Pwf Pwf_wf expr_cmp_range cmp_antisym cmp_eq_iff cmp_FT); auto.
  - apply (kl_eq_false Pwf Pwf_wf); auto.
  - apply (kl_eq_false Pwf Pwf_wf); auto. apply expr_eqb_sym; auto.
Qed.

Theorem map_insert_order_independent :
  forall d1 d2 : list (expr * number),
    Permutation d1 d2 ->
    forallb (fun p => wf (fst p)) d1 = true -> pairwise_ne (map fst d1) = true ->
    map_of_umap expr_eqb expr_cmp d1 = map_of_umap expr_eqb expr_cmp d2.
Proof.
  intros d1 d2 PM K NE.
  assert (K1 : kok Pwf d1).
  { split; [|exact NE]. intros p Hp. eapply forallb_forall in K; [exact K | exact Hp]. }
  assert (K2 : kok Pwf d2) by (apply (kok_perm Pwf Pwf_wf d1 d2 PM K1)).
  apply (sortd_perm_eq Pwf Pwf_wf expr_cmp_range cmp_antisym cmp_eq_iff cmp_FT d1 d2 K1 K2 PM).
Qed.
