(* Add's dictionary under the invariant of the theorems: keys well formed and pairwise not eq,
   coefficients exact, normalised, non-zero.  The coefficient of a key is characterised as a SUM
   over the entries (which makes merging, permutation and extensionality arguments uniform). *)
From SE Require Export Expr.ArithNum.
From SE Require Import Num.NumSpec Num.NumQi Expr.CmpProofs.
From Coq Require Import QArith Lia Permutation Setoid Morphisms.
Local Open Scope Z_scope.

(* eq is a congruence for "eq to k" *)
Lemma eqb_cong_wf : forall x y k, wf x = true -> wf y = true -> wf k = true ->
  expr_eqb x y = true -> expr_eqb x k = expr_eqb y k.
Proof.
  intros x y k Wx Wy Wk E.
  destruct (expr_eqb x k) eqn:A; destruct (expr_eqb y k) eqn:B; try reflexivity.
  - rewrite expr_eqb_sym_eq in E by assumption.
    rewrite (expr_eqb_trans y x k) in B by assumption. discriminate.
  - rewrite (expr_eqb_trans x y k) in A by assumption. discriminate.
Qed.

Lemma key_match_wf : forall k k', wf k = true -> wf k' = true -> key_match k k' = expr_eqb k' k.
Proof.
  intros k k' Wk Wk'. unfold key_match. destruct (expr_eqb k' k) eqn:E.
  - rewrite (hash_respects_eq k' k) by assumption. rewrite N.eqb_refl. reflexivity.
  - apply andb_false_r.
Qed.

Definition keys_wf (d : adict) : Prop := forall p, In p d -> wf (fst p) = true.

(* the coefficient of key k: sum over the entries whose key is eq to k *)
Definition contrib (k : expr) (p : expr * number) : qi :=
  if expr_eqb (fst p) k then qval (snd p) else qi_zero.
Fixpoint coefsum (d : adict) (k : expr) : qi :=
  match d with
  | [] => qi_zero
  | p :: r => qi_add (contrib k p) (coefsum r k)
  end.

Lemma coefsum_app : forall d1 d2 k, qi_eq (coefsum (d1 ++ d2) k) (qi_add (coefsum d1 k) (coefsum d2 k)).
Proof.
  induction d1 as [|p d1 IH]; intros d2 k; cbn [app coefsum].
  - symmetry. apply qi_add_0_l.
  - rewrite IH. apply qi_add_assoc.
Qed.

(* a sum over a list, given by its equation for a cons, does not depend on the order *)
Lemma qi_sum_perm : forall (A : Type) (f : A -> qi) (S : list A -> qi),
  (forall x l, S (x :: l) = qi_add (f x) (S l)) ->
  forall l l', Permutation l l' -> qi_eq (S l) (S l').
Proof.
  intros A f S HS l l' P. induction P; rewrite ?HS.
  - reflexivity.
  - now apply qi_add_proper.
  - rewrite !qi_add_assoc. apply qi_add_proper; [apply qi_add_comm | reflexivity].
  - etransitivity; eassumption.
Qed.

Lemma coefsum_perm : forall d1 d2 k, Permutation d1 d2 -> qi_eq (coefsum d1 k) (coefsum d2 k).
Proof. intros d1 d2 k. apply (qi_sum_perm _ (contrib k) (fun d => coefsum d k)). reflexivity. Qed.

(* a general linear functional over the entries:  sum  value * phi(key), for phi respecting eq *)
Definition respects (phi : expr -> qi) : Prop :=
  forall x y, wf x = true -> wf y = true -> expr_eqb x y = true -> qi_eq (phi x) (phi y).
Fixpoint wsum (phi : expr -> qi) (d : adict) : qi :=
  match d with
  | [] => qi_zero
  | p :: r => qi_add (qi_mul (qval (snd p)) (phi (fst p))) (wsum phi r)
  end.
Lemma wsum_app : forall phi d1 d2, qi_eq (wsum phi (d1 ++ d2)) (qi_add (wsum phi d1) (wsum phi d2)).
Proof.
  induction d1 as [|p d1 IH]; intros d2; cbn [app wsum].
  - symmetry. apply qi_add_0_l.
  - rewrite IH. apply qi_add_assoc.
Qed.
Lemma wsum_perm : forall phi d1 d2, Permutation d1 d2 -> qi_eq (wsum phi d1) (wsum phi d2).
Proof. intros phi. apply (qi_sum_perm _ (fun p => qi_mul (qval (snd p)) (phi (fst p)))). reflexivity. Qed.

(* the coefficient of k is the functional of the indicator of k: what holds of every [wsum] holds of [coefsum] *)
Definition key_ind (k t : expr) : qi := if expr_eqb t k then qi_one else qi_zero.
Lemma key_ind_respects : forall k, wf k = true -> respects (key_ind k).
Proof. intros k Wk x y Wx Wy E. unfold key_ind. now rewrite (eqb_cong_wf x y k Wx Wy Wk E). Qed.
Lemma contrib_ind : forall k t c, qi_eq (qi_mul (qval c) (key_ind k t)) (contrib k (t, c)).
Proof.
  intros. unfold key_ind, contrib. cbn [fst snd].
  destruct (expr_eqb t k); [apply qi_mul_1_r | rewrite qi_mul_comm; apply qi_mul_0_l].
Qed.
Lemma coefsum_wsum : forall d k, qi_eq (coefsum d k) (wsum (key_ind k) d).
Proof.
  induction d as [|[t c] d IH]; intros k; cbn [coefsum wsum fst snd]; [reflexivity|]. rewrite IH.
  apply qi_add_proper; [|reflexivity]. symmetry. apply contrib_ind.
Qed.

(* find / erase / set in terms of eq alone *)
Lemma umap_find_wf : forall k d, wf k = true -> keys_wf d ->
  umap_find expr_eqb k d =
  match find (fun p => expr_eqb (fst p) k) d with Some p => Some (snd p) | None => None end.
Proof.
  intros k d Wk. induction d as [|[k0 v0] d IH]; intros K; cbn [umap_find find fst snd]; [reflexivity|].
  assert (W0 : wf k0 = true) by (apply (K (k0, v0)); left; reflexivity).
  fold (key_match k k0). rewrite key_match_wf by assumption.
  destruct (expr_eqb k0 k); [reflexivity|]. apply IH. intros p Hp. apply K. right. exact Hp.
Qed.

(* decomposition of a dictionary at the entry found for k *)
Lemma find_split : forall k d v, wf k = true -> keys_wf d -> umap_find expr_eqb k d = Some v ->
  exists d1 k0 d2, d = d1 ++ (k0, v) :: d2 /\ expr_eqb k0 k = true /\
    (forall p, In p d1 -> expr_eqb (fst p) k = false) /\
    (forall s, umap_set k s d = d1 ++ (k0, s) :: d2) /\ umap_erase k d = d1 ++ d2.
Proof.
  intros k d v Wk. induction d as [|[k1 v1] d IH]; intros K F; cbn [umap_find] in F; [discriminate|].
  assert (W1 : wf k1 = true) by (apply (K (k1, v1)); left; reflexivity).
  assert (K' : keys_wf d) by (intros p Hp; apply K; right; exact Hp).
  fold (key_match k k1) in F. cbn [umap_set umap_erase]. rewrite key_match_wf in * by assumption.
  destruct (expr_eqb k1 k) eqn:E.
  - injection F as <-. exists [], k1, d. cbn [app]. repeat split; auto. intros p [].
  - destruct (IH K' F) as (d1 & k0 & d2 & -> & E0 & N & S & R).
    exists ((k1, v1) :: d1), k0, d2. cbn [app]. repeat split; auto.
    + intros p [<-|Hp]; [exact E | now apply N].
    + intros s. now rewrite S.
    + now rewrite R.
Qed.

Lemma find_none_all : forall k d, wf k = true -> keys_wf d -> umap_find expr_eqb k d = None ->
  forall p, In p d -> expr_eqb (fst p) k = false.
Proof.
  intros k d Wk. induction d as [|[k1 v1] d IH]; intros K F p Hp; [contradiction|].
  cbn [umap_find] in F. fold (key_match k k1) in F.
  assert (W1 : wf k1 = true) by (apply (K (k1, v1)); left; reflexivity).
  rewrite key_match_wf in F by assumption.
  destruct (expr_eqb k1 k) eqn:E; [discriminate|].
  destruct Hp as [<-|Hp]; [exact E|]. apply IH; auto. intros q Hq. apply K. right. exact Hq.
Qed.

Lemma coefsum_absent : forall d k, (forall p, In p d -> expr_eqb (fst p) k = false) -> qi_eq (coefsum d k) qi_zero.
Proof.
  induction d as [|p d IH]; intros k H; [reflexivity|]. cbn [coefsum]. unfold contrib.
  rewrite (H p) by (left; reflexivity). rewrite IH by (intros q Hq; apply H; right; exact Hq). apply qi_add_0_l.
Qed.

(* well-formed dictionaries with pairwise distinct keys *)
Record dinv (d : adict) : Prop := {
  dinv_wf : keys_wf d;
  dinv_val : forall p, In p d -> xok (snd p) = true /\ num_is_zero (snd p) = false;
  dinv_ne : pairwise_ne (map fst d) = true
}.

Lemma dinv_nil : dinv [].
Proof. split; [intros p [] | intros p [] | reflexivity]. Qed.

Lemma pairwise_ne_app_one : forall l x, pairwise_ne l = true ->
  (forall y, In y l -> expr_eqb y x = false) -> pairwise_ne (l ++ [x]) = true.
Proof.
  induction l as [|a l IH]; intros x H N; cbn [app pairwise_ne]; [reflexivity|].
  cbn [pairwise_ne] in H. apply andb_prop in H. destruct H as [H1 H2].
  apply andb_true_intro. split.
  - rewrite forallb_app. rewrite H1. cbn [forallb]. rewrite (N a) by (left; reflexivity). reflexivity.
  - apply IH; auto. intros y Hy. apply N. right. exact Hy.
Qed.

Lemma pairwise_ne_remove : forall l1 x l2, pairwise_ne (l1 ++ x :: l2) = true -> pairwise_ne (l1 ++ l2) = true.
Proof.
  induction l1 as [|a l1 IH]; intros x l2 H; cbn [app pairwise_ne] in *.
  - apply andb_prop in H. apply H.
  - apply andb_prop in H. destruct H as [H1 H2]. apply andb_true_intro. split; [|eapply IH; eassumption].
    rewrite forallb_app in *. apply andb_prop in H1. destruct H1 as [A B]. cbn [forallb] in B.
    apply andb_prop in B. destruct B as [_ B]. now rewrite A, B.
Qed.

Lemma dinv_set : forall d1 k0 v s d2, dinv (d1 ++ (k0, v) :: d2) -> xok s = true -> num_is_zero s = false ->
  dinv (d1 ++ (k0, s) :: d2).
Proof.
  intros d1 k0 v s d2 [K V N] Xs Zs. split.
  - intros p Hp. apply in_app_or in Hp. destruct Hp as [Hp|[<-|Hp]].
    + apply K. apply in_or_app. left. exact Hp.
    + apply (K (k0, v)). apply in_or_app. right. left. reflexivity.
    + apply K. apply in_or_app. right. right. exact Hp.
  - intros p Hp. apply in_app_or in Hp. destruct Hp as [Hp|[<-|Hp]].
    + apply V. apply in_or_app. left. exact Hp.
    + cbn [snd]. auto.
    + apply V. apply in_or_app. right. right. exact Hp.
  - rewrite map_app in *. cbn [map fst] in *. exact N.
Qed.

Lemma dinv_erase : forall d1 p d2, dinv (d1 ++ p :: d2) -> dinv (d1 ++ d2).
Proof.
  intros d1 p d2 [K V N]. split.
  - intros q Hq. apply K. apply in_app_or in Hq. apply in_or_app. cbn. tauto.
  - intros q Hq. apply V. apply in_app_or in Hq. apply in_or_app. cbn. tauto.
  - rewrite map_app in *. cbn [map] in N. eapply pairwise_ne_remove. exact N.
Qed.

Lemma dinv_snoc : forall d t c, dinv d -> wf t = true -> xok c = true -> num_is_zero c = false ->
  (forall p, In p d -> expr_eqb (fst p) t = false) -> dinv (d ++ [(t, c)]).
Proof.
  intros d t c [K V N] Wt Xc Zc F. split.
  - intros p Hp. apply in_app_or in Hp. destruct Hp as [Hp|[<-|[]]]; auto.
  - intros p Hp. apply in_app_or in Hp. destruct Hp as [Hp|[<-|[]]]; auto.
  - rewrite map_app. cbn [map fst]. apply pairwise_ne_app_one; auto.
    intros y Hy. apply in_map_iff in Hy. destruct Hy as [p [<- Hp]]. now apply F.
Qed.

(* in a dictionary with distinct keys the sum is the value of the entry *)
Lemma coefsum_entry : forall d k v k', dinv d -> wf k' = true -> In (k, v) d -> expr_eqb k k' = true ->
  qi_eq (coefsum d k') (qval v).
Proof.
  intros d k v k' [K _ N] Wk' Hin E.
  assert (Wk : wf k = true) by apply (K (k, v) Hin).
  (* a key eq to k' is eq to k, and so belongs to no other entry *)
  assert (EK : forall x, wf x = true -> expr_eqb x k' = true -> expr_eqb x k = true).
  { intros x Wx A. apply (expr_eqb_trans x k' k); auto. rewrite expr_eqb_sym_eq by assumption. exact E. }
  induction d as [|p r IH]; [contradiction|].
  cbn [map] in N. apply pairwise_ne_cons in N. destruct N as [NE N].
  assert (Wp : wf (fst p) = true) by (apply K; left; reflexivity).
  assert (K' : keys_wf r) by (intros q Hq; apply K; right; exact Hq).
  cbn [coefsum]. unfold contrib at 1. destruct Hin as [->|Hin]; cbn [fst snd] in *.
  - rewrite E, coefsum_absent; [apply qi_add_0_r|].
    intros q Hq. destruct (expr_eqb (fst q) k') eqn:A; [exfalso|reflexivity].
    pose proof (EK (fst q) (K' q Hq) A) as B. rewrite expr_eqb_sym_eq in B by auto.
    rewrite (NE (fst q)) in B by (apply in_map; exact Hq). discriminate.
  - destruct (expr_eqb (fst p) k') eqn:A.
    + exfalso. pose proof (EK (fst p) Wp A) as B.
      rewrite (NE k) in B by (apply (in_map fst r (k, v)); exact Hin). discriminate.
    + rewrite qi_add_0_l. apply IH; assumption.
Qed.

(* either some entry is eq to k, or none *)
Lemma entry_dec : forall (d : adict) k, (exists p, In p d /\ expr_eqb (fst p) k = true) \/ (forall p, In p d -> expr_eqb (fst p) k = false).
Proof.
  induction d as [|a d IH]; intros k; [right; intros p []|].
  destruct (expr_eqb (fst a) k) eqn:E; [left; exists a; split; [left; reflexivity|exact E]|].
  destruct (IH k) as [[p [Hp Ep]]|N]; [left; exists p; split; [right; exact Hp|exact Ep]|].
  right. intros p [<-|Hp]; auto.
Qed.

(* extensionality: equal coefficient functions give equal dictionaries *)
Lemma dinv_dict_ok : forall d, dinv d -> dict_ok Pwf d.
Proof.
  intros d [K V N]. split; [|exact N]. intros p Hp. split; [apply K; exact Hp|].
  apply xok_wf. apply V. exact Hp.
Qed.

Lemma dinv_match : forall d1 d2, dinv d1 -> dinv d2 ->
  (forall k, wf k = true -> qi_eq (coefsum d1 k) (coefsum d2 k)) ->
  forall p, In p d1 -> exists q, In q d2 /\ entry_rel p q.
Proof.
  intros d1 d2 I1 I2 H [k v] Hp.
  assert (Wk : wf k = true) by (apply (dinv_wf _ I1 (k, v)); exact Hp).
  assert (S1 : qi_eq (coefsum d1 k) (qval v)) by (eapply coefsum_entry; eauto using expr_eqb_refl).
  destruct (entry_dec d2 k) as [[[k' v'] [Hq Eq]]|N].
  - cbn [fst] in Eq. exists (k', v'). split; [exact Hq|]. unfold entry_rel. cbn [fst snd]. split; [exact Eq|].
    assert (S2 : qi_eq (coefsum d2 k) (qval v')) by (eapply coefsum_entry; eauto).
    assert (v = v').
    { apply qval_inj; [apply (dinv_val _ I1 (k, v) Hp) | apply (dinv_val _ I2 (k', v') Hq)|].
      rewrite <- S1, <- S2. apply H. exact Wk. }
    subst. apply cmp_num_eqb_refl. apply (dinv_val _ I2 (k', v') Hq).
  - exfalso. apply coefsum_absent in N. rewrite <- (H k Wk), S1 in N.
    destruct (dinv_val _ I1 (k, v) Hp) as [X Z]. cbn [snd] in *.
    apply (is_zero_val v X) in N. congruence.
Qed.

Lemma dinv_ext : forall d1 d2, dinv d1 -> dinv d2 ->
  (forall k, wf k = true -> qi_eq (coefsum d1 k) (coefsum d2 k)) ->
  umap_eqb expr_eqb d1 d2 = true.
Proof.
  intros d1 d2 I1 I2 H.
  pose proof (dinv_dict_ok _ I1) as O1. pose proof (dinv_dict_ok _ I2) as O2.
  apply (umap_eqb_spec Pwf expr_eqb_sym expr_eqb_trans hash_respects_eq d1 d2 O1 O2).
  pose proof (dinv_match d1 d2 I1 I2 H) as M12.
  assert (M21 : forall p, In p d2 -> exists q, In q d1 /\ entry_rel p q).
  { apply dinv_match; auto. intros k Wk. symmetry. now apply H. }
  split; [|exact M12].
  destruct (matching Pwf expr_eqb_sym expr_eqb_trans d1 d2 O1) as (l2' & rest & P12 & F12); auto.
  { intros q Hq. apply (dinv_wf _ I2). exact Hq. }
  destruct (matching Pwf expr_eqb_sym expr_eqb_trans d2 d1 O2) as (l1' & rest' & P21 & F21); auto.
  { intros q Hq. apply (dinv_wf _ I1). exact Hq. }
  apply Permutation_length in P12, P21. rewrite app_length in *.
  apply Forall2_length' in F12, F21. lia.
Qed.
