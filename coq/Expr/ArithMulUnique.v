(* C04 for mul: on the power-product fragment with sorted dictionaries the result of mul(a, b) is
   determined by the coefficient product and the exponent SUMS of the atoms; hence mul(a, b) and
   mul(b, a) are eq. *)
From SE Require Export Expr.ArithMulProofs.
From SE Require Import Num.NumSpec Num.NumQi Expr.CmpProofs.
From Coq Require Import QArith Lia Permutation Setoid Morphisms.
Local Open Scope Z_scope.

(* the Mul dictionary read as an Add-style dictionary: key -> exponent *)
Definition to_ad (d : mdict) : adict := map (fun p => (fst p, num_of (snd p))) d.
Definition esum (d : mdict) (k : expr) : qi := coefsum (to_ad d) k.

Lemma to_ad_app : forall d1 d2, to_ad (d1 ++ d2) = to_ad d1 ++ to_ad d2.
Proof. intros. unfold to_ad. apply map_app. Qed.

Lemma esum_app : forall d1 d2 k, qi_eq (esum (d1 ++ d2) k) (qi_add (esum d1 k) (esum d2 k)).
Proof. intros. unfold esum. rewrite to_ad_app. apply coefsum_app. Qed.

Lemma esum_cons : forall k v d x, esum ((k, v) :: d) x = qi_add (contrib x (k, num_of v)) (esum d x).
Proof. reflexivity. Qed.
Lemma esum_nil : forall x, esum [] x = qi_zero.
Proof. reflexivity. Qed.

Lemma mentries_keys_wf : forall d p, mentries_ok d = true -> In p d -> wf (fst p) = true.
Proof. intros d p D Hp. apply (mentries_wf d D p Hp). Qed.

(* exponent sums after one dict_add_term_new *)
Lemma dstep_esum : forall d t q k, mentries_ok d = true -> atom_ok t = true -> qexp_ok q = true -> wf k = true ->
  qi_eq (esum (dstep d (t, ENum q)) k) (qi_add (esum d k) (contrib k (t, q))).
Proof.
  intros d t q k D T Q Wk. destruct (atom_ok_inv _ T) as (Wt & _ & _).
  destruct (dstep_cases d t q D T) as [d1 d2 -> _ _ | d1 k0 vn d2 -> Tk Qv E0].
  - rewrite !esum_app, esum_cons. cbn [num_of].
    destruct (esum d1 k), (esum d2 k), (contrib k (t, q)). qi_unfold. split; ring.
  - destruct (atom_ok_inv _ Tk) as (W0 & _ & _).
    pose proof (qexp_ok_xok _ Qv) as Xv. pose proof (qexp_ok_xok _ Q) as Xq.
    assert (SUM : qi_eq (qi_add (contrib k (k0, vn)) (contrib k (t, q))) (contrib k (k0, xadd vn q))).
    { unfold contrib. cbn [fst snd]. rewrite <- (eqb_cong_wf k0 t k W0 Wt Wk E0).
      destruct (expr_eqb k0 k); [symmetry; now apply xadd_val | apply qi_add_0_l]. }
    destruct (num_is_zero (xadd vn q)) eqn:Z; rewrite !esum_app, !esum_cons; cbn [num_of].
    + apply qi_rearr_erase. etransitivity; [exact SUM|].
      unfold contrib. cbn [fst snd]. destruct (expr_eqb k0 k); [|reflexivity]. apply is_zero_val; auto using xadd_xok.
    + apply qi_rearr_set. exact SUM.
Qed.

Lemma dmerge_esum : forall l d k, mentries_ok d = true -> mentries_ok l = true -> wf k = true ->
  qi_eq (esum (dmerge d l) k) (qi_add (esum d k) (esum l k)).
Proof.
  unfold dmerge. induction l as [|[t v] l IH]; intros d k D L Wk; cbn [fold_left].
  - rewrite esum_nil. symmetry. apply qi_add_0_r.
  - apply mentries_cons_inv in L. destruct L as (q & -> & T & Q & L).
    rewrite IH by auto using dstep_entries. rewrite dstep_esum by assumption.
    rewrite esum_cons. cbn [num_of]. symmetry. apply qi_add_assoc.
Qed.

Lemma kl_irrefl : forall a, wf a = true -> expr_keyless a a = false.
Proof. intros a W. destruct keyless_strict_weak_order as (H & _ & _). now apply H. Qed.
Lemma kl_trans : forall a b c, wf a = true -> wf b = true -> wf c = true ->
  expr_keyless a b = true -> expr_keyless b c = true -> expr_keyless a c = true.
Proof. intros a b c Wa Wb Wc. destruct keyless_strict_weak_order as (_ & H & _). now apply H. Qed.
Lemma kl_eq_iff : forall a b, wf a = true -> wf b = true ->
  (expr_keyless a b = false /\ expr_keyless b a = false <-> expr_eqb a b = true).
Proof. intros a b Wa Wb. destruct keyless_strict_weak_order as (_ & _ & H). now apply H. Qed.
Lemma kl_lt_ne : forall a b, wf a = true -> wf b = true -> expr_keyless a b = true ->
  expr_eqb a b = false /\ expr_eqb b a = false.
Proof.
  intros a b Wa Wb L. split.
  - destruct (expr_eqb a b) eqn:E; [|reflexivity]. apply (kl_eq_iff a b Wa Wb) in E. destruct E as [E _]. congruence.
  - destruct (expr_eqb b a) eqn:E; [|reflexivity]. apply (kl_eq_iff b a Wb Wa) in E. destruct E as [_ E]. congruence.
Qed.
Lemma kl_total : forall a b, wf a = true -> wf b = true -> expr_eqb a b = false ->
  expr_keyless a b = true \/ expr_keyless b a = true.
Proof.
  intros a b Wa Wb NE. destruct (expr_keyless a b) eqn:A; [left; reflexivity|].
  destruct (expr_keyless b a) eqn:B; [right; reflexivity|].
  assert (E : expr_eqb a b = true) by (apply (kl_eq_iff a b Wa Wb); auto). congruence.
Qed.
(* a < b and b eq c give a < c *)
Lemma kl_lt_eq : forall a b c, wf a = true -> wf b = true -> wf c = true ->
  expr_keyless a b = true -> expr_eqb b c = true -> expr_keyless a c = true.
Proof. exact (kl_lt_E Pwf Pwf_wf expr_cmp_range cmp_antisym cmp_eq_iff cmp_FT). Qed.

Fixpoint ssorted (d : mdict) : Prop :=
  match d with
  | [] => True
  | p :: r => (forall q, In q r -> expr_keyless (fst p) (fst q) = true) /\ ssorted r
  end.

Lemma msorted_ssorted : forall d, (forall p, In p d -> wf (fst p) = true) -> msorted d = true -> ssorted d.
Proof.
  induction d as [|p d IH]; intros W S; [exact I|]. cbn [ssorted]. destruct d as [|q d].
  - split; [intros q []|exact I].
  - cbn [msorted] in S. apply andb_prop in S. destruct S as [L S].
    assert (SS : ssorted (q :: d)) by (apply IH; [intros x Hx; apply W; right; exact Hx | exact S]).
    split; [|exact SS]. intros x [<-|Hx]; [exact L|].
    destruct SS as [Lq _]. apply (kl_trans (fst p) (fst q) (fst x)); auto; apply W; cbn; auto.
Qed.
Lemma ssorted_msorted : forall d, ssorted d -> msorted d = true.
Proof.
  induction d as [|p d IH]; intros S; [reflexivity|]. destruct S as [L S]. destruct d as [|q d]; [reflexivity|].
  cbn [msorted]. rewrite (L q (or_introl eq_refl)). now apply IH.
Qed.

Lemma ssorted_app : forall d1 d2, ssorted (d1 ++ d2) <->
  ssorted d1 /\ ssorted d2 /\ (forall p q, In p d1 -> In q d2 -> expr_keyless (fst p) (fst q) = true).
Proof.
  induction d1 as [|a d1 IH]; intros d2; cbn [app ssorted].
  - split; [intros S; repeat split; auto; intros p q [] | intros (_ & S & _); exact S].
  - rewrite IH. split.
    + intros (L & S1 & S2 & C). repeat split; auto.
      * intros q Hq. apply L. apply in_or_app. left. exact Hq.
      * intros p q [<-|Hp] Hq; [apply L; apply in_or_app; right; exact Hq | now apply C].
    + intros ((L & S1) & S2 & C). repeat split; auto.
      * intros q Hq. apply in_app_or in Hq. destruct Hq as [Hq|Hq]; [now apply L | apply C; [left; reflexivity | exact Hq]].
      * intros p q Hp Hq. apply C; [right; exact Hp | exact Hq].
Qed.

Lemma dstep_sorted : forall d t q, mentries_ok d = true -> atom_ok t = true -> qexp_ok q = true ->
  ssorted d -> ssorted (dstep d (t, ENum q)).
Proof.
  intros d t q D T Q S. destruct (atom_ok_inv _ T) as (Wt & _ & _).
  destruct (dstep_cases d t q D T) as [d1 d2 -> O H | d1 k0 vn d2 -> _ _ _];
    apply ssorted_app in S; destruct S as (S1 & S2 & C).
  - assert (W2 : forall x, In x d2 -> wf (fst x) = true).
    { intros x Hx. apply (mentries_keys_wf _ x D). apply in_or_app. right. exact Hx. }
    apply ssorted_app. split; [exact S1|]. split.
    + cbn [ssorted]. split; [|exact S2]. intros x Hx. cbn [fst].
      destruct d2 as [|y d2]; [contradiction|]. destruct Hx as [<-|Hx]; [exact H|].
      destruct S2 as [Ly _]. apply (kl_trans t (fst y) (fst x)); auto; apply W2; cbn; auto.
    + intros p x Hp [<-|Hx]; [cbn [fst]; now apply O | now apply C].
  - cbn [ssorted] in S2. destruct S2 as [L2 S2].
    destruct (num_is_zero _); apply ssorted_app; repeat split; auto.
    + intros p x Hp Hx. apply C; [exact Hp | right; exact Hx].
    + intros p x Hp [<-|Hx]; [apply (C p (k0, ENum vn)); [exact Hp | left; reflexivity] | apply C; [exact Hp | right; exact Hx]].
Qed.

Lemma dmerge_sorted : forall l d, mentries_ok d = true -> mentries_ok l = true -> ssorted d -> ssorted (dmerge d l).
Proof.
  unfold dmerge. induction l as [|[t v] l IH]; intros d D L S; cbn [fold_left]; [exact S|].
  apply mentries_cons_inv in L. destruct L as (q & -> & T & Q & L).
  apply IH; auto using dstep_entries, dstep_sorted.
Qed.

(* uniqueness of sorted dictionaries with given exponent sums *)
Lemma kl_eq_lt : forall a b c, wf a = true -> wf b = true -> wf c = true ->
  expr_eqb a b = true -> expr_keyless a c = true -> expr_keyless b c = true.
Proof.
  intros a b c Wa Wb Wc E L. destruct (expr_keyless b c) eqn:BC; [reflexivity|]. exfalso.
  destruct (expr_keyless c b) eqn:CB.
  - pose proof (kl_trans a c b Wa Wc Wb L CB) as AB. destruct (kl_lt_ne a b Wa Wb AB). congruence.
  - assert (E2 : expr_eqb b c = true) by (apply (kl_eq_iff b c Wb Wc); auto).
    pose proof (expr_eqb_trans a b c Wa Wb Wc E E2) as E3. destruct (kl_lt_ne a c Wa Wc L). congruence.
Qed.

Lemma esum_above : forall d x, wf x = true -> (forall q, In q d -> wf (fst q) = true) ->
  (forall q, In q d -> expr_keyless x (fst q) = true) -> qi_eq (esum d x) qi_zero.
Proof.
  intros d x Wx W L. unfold esum. apply coefsum_absent. intros p Hp. unfold to_ad in Hp. apply in_map_iff in Hp.
  destruct Hp as (q & <- & Hq). cbn [fst]. apply (kl_lt_ne x (fst q)); auto.
Qed.

Lemma qi_add_cancel_l : forall a b c, qi_eq (qi_add a b) (qi_add a c) -> qi_eq b c.
Proof.
  intros [a1 a2] [b1 b2] [c1 c2] [H1 H2]. qi_unfold. split.
  - apply (Qplus_inj_l _ _ a1). exact H1.
  - apply (Qplus_inj_l _ _ a2). exact H2.
Qed.

Lemma head_nonzero : forall n, qexp_ok n = true -> ~ qi_eq (qval n) qi_zero.
Proof.
  intros n Q H. apply (is_zero_val n (qexp_ok_xok _ Q)) in H. rewrite (qexp_ok_nz _ Q) in H. discriminate.
Qed.

(* at a key below all keys of r only the head entry contributes *)
Lemma esum_low : forall k v r x, mentries_ok r = true -> wf x = true ->
  (forall q, In q r -> expr_keyless x (fst q) = true) -> qi_eq (esum ((k, v) :: r) x) (contrib x (k, num_of v)).
Proof.
  intros k v r x D Wx L. rewrite esum_cons, (esum_above r x Wx); [apply qi_add_0_r | | exact L].
  intros q Hq. apply (mentries_keys_wf r q D Hq).
Qed.

Lemma esum_head : forall k n r, mentries_ok r = true -> wf k = true ->
  (forall q, In q r -> expr_keyless k (fst q) = true) -> qi_eq (esum ((k, ENum n) :: r) k) (qval n).
Proof.
  intros k n r D W L. rewrite esum_low by assumption. unfold contrib. cbn [fst snd num_of]. now rewrite (expr_eqb_refl k W).
Qed.

Lemma sorted_cons_inv : forall k v r, mentries_ok ((k, v) :: r) = true -> ssorted ((k, v) :: r) ->
  exists n, v = ENum n /\ qexp_ok n = true /\ wf k = true /\ mentries_ok r = true /\
    (forall q, In q r -> expr_keyless k (fst q) = true) /\ ssorted r.
Proof.
  intros k v r D [L S]. apply mentries_cons_inv in D. destruct D as (n & -> & T & Q & D). destruct (atom_ok_inv _ T) as (W & _ & _). exists n. auto 8.
Qed.

Theorem sorted_unique : forall d d', mentries_ok d = true -> mentries_ok d' = true -> ssorted d -> ssorted d' ->
  (forall k, wf k = true -> qi_eq (esum d k) (esum d' k)) ->
  list_eqb expr_eqb (flat d) (flat d') = true.
Proof.
  induction d as [|[k v] r IH]; intros [|[k' v'] r'] D0 D0' S0 S0' H.
  - reflexivity.
  - exfalso. destruct (sorted_cons_inv k' v' r' D0' S0') as (n' & -> & Q' & W' & D' & L' & S').
    apply (head_nonzero n' Q'). rewrite <- (esum_head k' n' r' D' W' L'). symmetry. now apply H.
  - exfalso. destruct (sorted_cons_inv k v r D0 S0) as (n & -> & Q & W & D & L & S).
    apply (head_nonzero n Q). rewrite <- (esum_head k n r D W L). now apply H.
  - destruct (sorted_cons_inv k v r D0 S0) as (n & -> & Q & W & D & L & S).
    destruct (sorted_cons_inv k' v' r' D0' S0') as (n' & -> & Q' & W' & D' & L' & S').
    (* the heads are eq: a head strictly below the other one would have exponent 0 *)
    assert (EK : expr_eqb k k' = true).
    { destruct (expr_eqb k k') eqn:NE; [reflexivity|]. exfalso.
      destruct (kl_total k k' W W' NE) as [LT|LT].
      - apply (head_nonzero n Q). rewrite <- (esum_head k n r D W L), (H k W).
        rewrite esum_low; auto; [|intros q Hq; apply (kl_trans k k' (fst q) W W' (mentries_keys_wf r' q D' Hq) LT (L' q Hq))].
        unfold contrib. cbn [fst]. destruct (kl_lt_ne k k' W W' LT) as [_ N2]. now rewrite N2.
      - apply (head_nonzero n' Q'). rewrite <- (esum_head k' n' r' D' W' L'), <- (H k' W').
        rewrite esum_low; auto; [|intros q Hq; apply (kl_trans k' k (fst q) W' W (mentries_keys_wf r q D Hq) LT (L q Hq))].
        unfold contrib. cbn [fst]. destruct (kl_lt_ne k' k W' W LT) as [_ N2]. now rewrite N2. }
    (* hence the exponents are equal *)
    assert (EN : n = n').
    { apply qval_inj; auto using qexp_ok_xok. rewrite <- (esum_head k n r D W L), (H k W).
      rewrite esum_low; auto.
      - unfold contrib. cbn [fst snd num_of]. now rewrite (expr_eqb_sym_eq k' k W' W), EK.
      - intros q Hq. apply (kl_eq_lt k' k (fst q)); auto; [apply (mentries_keys_wf r' q D' Hq) | now rewrite expr_eqb_sym_eq]. }
    subst n'.
    cbn [flat flat_map app list_eqb fst snd]. rewrite EK. rewrite eqb_ENum, (cmp_num_eqb_refl n (qexp_ok_xok _ Q)). cbn [andb].
    apply IH; auto. intros x Wx. specialize (H x Wx). rewrite !esum_cons in H. cbn [num_of] in H.
    assert (CE : contrib x (k, n) = contrib x (k', n)).
    { unfold contrib. cbn [fst snd]. now rewrite (eqb_cong_wf k k' x W W' Wx EK). }
    rewrite CE in H. exact (qi_add_cancel_l _ _ _ H).
Qed.

(* Mul::from_dict respects eq of sorted dictionaries *)
Lemma flat_length_eq : forall (d d' : mdict), list_eqb expr_eqb (flat d) (flat d') = true -> length d = length d'.
Proof.
  induction d as [|[k v] d IH]; intros [|[k' v'] d'] H; cbn [flat flat_map app list_eqb] in H; try discriminate H; [reflexivity|].
  apply andb_prop in H. destruct H as [_ H]. apply andb_prop in H. destruct H as [_ H]. cbn [length]. f_equal. now apply IH.
Qed.

Lemma mfd_cong : forall c d d', xok c = true -> mentries_ok d = true -> mentries_ok d' = true ->
  list_eqb expr_eqb (flat d) (flat d') = true -> expr_eqb (mul_from_dict c d) (mul_from_dict c d') = true.
Proof.
  intros c d d' Xc D D' H. pose proof (cmp_num_eqb_refl c Xc) as RC. pose proof (flat_length_eq d d' H) as L.
  unfold mul_from_dict. destruct (num_is_zero c); [now rewrite eqb_ENum|].
  destruct d as [|[k v] [|p2 d]]; destruct d' as [|[k' v'] [|q2 d']]; try discriminate L.
  - now rewrite eqb_ENum.
  - cbn [flat flat_map app list_eqb fst snd] in H. apply andb_prop in H. destruct H as [Ek H]. apply andb_prop in H. destruct H as [Ev _].
    apply mentries_cons_inv in D, D'. destruct D as (n & -> & T & Q & _). destruct D' as (n' & -> & T' & Q' & _).
    rewrite eqb_ENum in Ev. apply cmp_num_eqb_eq in Ev; auto using qexp_ok_xok. subst n'.
    assert (M : expr_eqb (EMul c [(k, ENum n)]) (EMul c [(k', ENum n)]) = true).
    { rewrite eqb_EMul, RC. cbn [flat flat_map app list_eqb fst snd]. rewrite Ek, eqb_ENum, (cmp_num_eqb_refl n (qexp_ok_xok _ Q)). reflexivity. }
    assert (P : expr_eqb (EPow k (ENum n)) (EPow k' (ENum n)) = true).
    { rewrite eqb_EPow, Ek, eqb_ENum, (cmp_num_eqb_refl n (qexp_ok_xok _ Q)). reflexivity. }
    destruct (num_is_one c).
    + destruct n as [z| | | | | | ]; try (destruct (expr_eqb _ e_one); assumption).
      destruct (z =? 1); [exact Ek|]. destruct (expr_eqb _ e_one); assumption.
    + destruct n; exact M.
  - rewrite eqb_EMul, RC. exact H.
Qed.

(* mul(a, b) on sorted operands *)
Lemma mul_sorted_ok : forall x, mul_operand_sorted x = true -> mul_operand_ok x = true.
Proof.
  intros x H. unfold mul_operand_sorted, mul_operand_ok in *.
  destruct x; cbn [mul_operand_ok_gen] in *; try exact H.
  repeat (apply andb_prop in H; destruct H as [H ?]).
  repeat (apply andb_true_intro; split); auto.
Qed.

Lemma mul_sorted_terms : forall x, mul_operand_sorted x = true -> ssorted (mterms x).
Proof.
  intros x H. pose proof (mul_sorted_ok x H) as O. destruct (mul_operand_ok_terms _ x O) as [_ T].
  apply msorted_ssorted; [intros p Hp; apply (mentries_keys_wf _ p T Hp)|].
  unfold mul_operand_sorted in H. unfold mterms.
  destruct x; cbn [mlin snd mul_operand_ok_gen] in *; try reflexivity.
  repeat (apply andb_prop in H; destruct H as [H ?]). assumption.
Qed.

Theorem e_mul_spec_sorted : forall f a b, mul_operand_sorted a = true -> mul_operand_sorted b = true ->
  exists d, e_mul (S (S f)) a b = Ok (mul_from_dict (xmul (mconst a) (mconst b)) d) /\
    mentries_ok d = true /\ ssorted d /\
    forall k, wf k = true -> qi_eq (esum d k) (qi_add (esum (mterms a) k) (esum (mterms b) k)).
Proof.
  intros f a b Ha Hb. pose proof (mul_sorted_ok a Ha) as Oa. pose proof (mul_sorted_ok b Hb) as Ob.
  destruct (mul_operand_ok_terms _ a Oa) as [Xa Ta]. destruct (mul_operand_ok_terms _ b Ob) as [Xb Tb].
  pose proof (mul_sorted_terms a Ha) as Sa. pose proof (mul_sorted_terms b Hb) as Sb.
  destruct (e_mul_spec f a b Oa Ob) as (X & Y & E & XY). exists (dmerge X Y). split; [exact E|].
  destruct XY as [[-> ->]|[[-> ->]|[-> ->]]].
  - split; [now apply dmerge_entries|]. split; [now apply dmerge_sorted|]. intros k Wk. now apply dmerge_esum.
  - split; [now apply dmerge_entries|]. split; [now apply dmerge_sorted|]. intros k Wk.
    rewrite dmerge_esum by assumption. apply qi_add_comm.
  - assert (T0 : mentries_ok (dmerge [] (mterms a)) = true) by (apply dmerge_entries; auto).
    split; [now apply dmerge_entries|]. split; [apply dmerge_sorted; auto; apply dmerge_sorted; auto; exact I|].
    intros k Wk. rewrite dmerge_esum by assumption. rewrite (dmerge_esum (mterms a) []) by auto.
    rewrite esum_nil, qi_add_0_l. reflexivity.
Qed.

Theorem mul_comm : forall fuel fuel' a b r1 r2, mul_operand_sorted a = true -> mul_operand_sorted b = true ->
  e_mul fuel a b = Ok r1 -> e_mul fuel' b a = Ok r2 -> expr_eqb r1 r2 = true.
Proof.
  intros fuel fuel' a b r1 r2 Ha Hb E1 E2.
  destruct (e_mul_spec_sorted fuel a b Ha Hb) as (d1 & F1 & D1 & S1 & H1).
  destruct (e_mul_spec_sorted fuel' b a Hb Ha) as (d2 & F2 & D2 & S2 & H2).
  rewrite (e_mul_det _ _ _ _ _ _ E1 F1), (e_mul_det _ _ _ _ _ _ E2 F2).
  destruct (mul_operand_ok_terms _ a (mul_sorted_ok a Ha)) as [Xa _]. destruct (mul_operand_ok_terms _ b (mul_sorted_ok b Hb)) as [Xb _].
  rewrite (xmul_comm (mconst b) (mconst a)) by assumption.
  apply mfd_cong; auto using xmul_xok. apply sorted_unique; auto.
  intros k Wk. rewrite (H1 k Wk), (H2 k Wk). apply qi_add_comm.
Qed.

Lemma mlin_mfd : forall c d, xok c = true -> mentries_ok d = true ->
  mlin (mul_from_dict c d) = if num_is_zero c then (c, []) else (c, d).
Proof.
  intros c d Xc D. destruct (mfd_cases c d D) as [[Z| ->] | k Zc Oc -> T | k n Zc Oc -> T Q NE | Zc NE H].
  - now rewrite Z.
  - destruct (num_is_zero c); reflexivity.
  - rewrite Zc, (is_one_eq c Xc Oc). destruct (atom_ok_inv _ T) as (_ & _ & A). destruct k; try discriminate A; reflexivity.
  - now rewrite Zc, (is_one_eq c Xc Oc).
  - now rewrite Zc.
Qed.

Lemma mconst_mfd : forall c d, xok c = true -> mentries_ok d = true -> mconst (mul_from_dict c d) = c.
Proof. intros. unfold mconst. rewrite mlin_mfd by assumption. destruct (num_is_zero c); reflexivity. Qed.
Lemma mterms_mfd_nz : forall c d, xok c = true -> mentries_ok d = true -> num_is_zero c = false ->
  mterms (mul_from_dict c d) = d.
Proof. intros c d X D Z. unfold mterms. rewrite mlin_mfd by assumption. now rewrite Z. Qed.

Lemma xmul_zero_l : forall a b, xok a = true -> xok b = true -> num_is_zero a = true -> num_is_zero (xmul a b) = true.
Proof.
  intros a b Xa Xb Z. apply (is_zero_val _ (xmul_xok a b Xa Xb)). unfold qi_is_zero.
  rewrite (xmul_val a b Xa Xb). apply (is_zero_val a Xa) in Z. unfold qi_is_zero in Z. rewrite Z. apply qi_mul_0_l.
Qed.
Lemma xmul_zero_r : forall a b, xok a = true -> xok b = true -> num_is_zero b = true -> num_is_zero (xmul a b) = true.
Proof. intros a b Xa Xb Z. rewrite xmul_comm by assumption. now apply xmul_zero_l. Qed.

Lemma mfd_zero : forall c d, num_is_zero c = true -> mul_from_dict c d = ENum c.
Proof. intros c d Z. unfold mul_from_dict. now rewrite Z. Qed.

Lemma mfd_sorted_closed : forall c d, xok c = true -> mentries_ok d = true -> ssorted d ->
  mul_operand_sorted (mul_from_dict c d) = true.
Proof. intros c d X D S. apply mfd_closed; auto. intros _. now apply ssorted_msorted. Qed.

Theorem mul_assoc : forall f1 f2 f3 f4 a b c ab bc r1 r2,
  mul_operand_sorted a = true -> mul_operand_sorted b = true -> mul_operand_sorted c = true ->
  e_mul f1 a b = Ok ab -> e_mul f2 ab c = Ok r1 -> e_mul f3 b c = Ok bc -> e_mul f4 a bc = Ok r2 ->
  expr_eqb r1 r2 = true.
Proof.
  intros f1 f2 f3 f4 a b c ab bc r1 r2 Ha Hb Hc Eab E1 Ebc E2.
  destruct (mul_operand_ok_terms _ a (mul_sorted_ok a Ha)) as [Xa Ta].
  destruct (mul_operand_ok_terms _ b (mul_sorted_ok b Hb)) as [Xb Tb].
  destruct (mul_operand_ok_terms _ c (mul_sorted_ok c Hc)) as [Xc Tc].
  destruct (e_mul_spec_sorted f1 a b Ha Hb) as (dab & Fab & Dab & Sab & Hab').
  pose proof (e_mul_det _ _ _ _ _ _ Eab Fab) as ->.
  destruct (e_mul_spec_sorted f3 b c Hb Hc) as (dbc & Fbc & Dbc & Sbc & Hbc').
  pose proof (e_mul_det _ _ _ _ _ _ Ebc Fbc) as ->.
  set (cab := xmul (mconst a) (mconst b)) in *. set (cbc := xmul (mconst b) (mconst c)) in *.
  assert (Xab : xok cab = true) by (unfold cab; auto using xmul_xok).
  assert (Xbc : xok cbc = true) by (unfold cbc; auto using xmul_xok).
  pose proof (mfd_sorted_closed cab dab Xab Dab Sab) as Oab. pose proof (mfd_sorted_closed cbc dbc Xbc Dbc Sbc) as Obc.
  destruct (e_mul_spec_sorted f2 _ c Oab Hc) as (d1 & F1 & D1 & S1 & H1).
  pose proof (e_mul_det _ _ _ _ _ _ E1 F1) as ->.
  destruct (e_mul_spec_sorted f4 a _ Ha Obc) as (d2 & F2 & D2 & S2 & H2).
  pose proof (e_mul_det _ _ _ _ _ _ E2 F2) as ->.
  rewrite !mconst_mfd by assumption.
  assert (CE : xmul cab (mconst c) = xmul (mconst a) cbc) by (unfold cab, cbc; symmetry; now apply xmul_assoc).
  rewrite CE. set (C := xmul (mconst a) cbc) in *.
  assert (XC : xok C = true) by (unfold C; auto using xmul_xok).
  destruct (num_is_zero C) eqn:ZC.
  - rewrite !mfd_zero by assumption. rewrite eqb_ENum. now apply cmp_num_eqb_refl.
  - assert (Zab : num_is_zero cab = false).
    { destruct (num_is_zero cab) eqn:Z; [|reflexivity]. rewrite <- CE in ZC. rewrite xmul_zero_l in ZC; auto. }
    assert (Zbc : num_is_zero cbc = false).
    { destruct (num_is_zero cbc) eqn:Z; [|reflexivity]. unfold C in ZC. rewrite xmul_zero_r in ZC; auto. }
    rewrite mterms_mfd_nz in H1, H2 by assumption.
    apply mfd_cong; auto. apply sorted_unique; auto.
    intros k Wk. rewrite (H1 k Wk), (H2 k Wk), (Hab' k Wk), (Hbc' k Wk). symmetry. apply qi_add_assoc.
Qed.
