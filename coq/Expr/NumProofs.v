(* Number-level and string-level lemmas for the eq / hash / compare theorems (C01, C02).
   Every three-way comparison of the model is brought into one normal form: a [Zcmp] of two
   integer keys, or a [lexZ] of such; range, antisymmetry, "zero iff eq" and transitivity are
   proved for [Zcmp] and carried through [lexZ] once. *)
From SE Require Export Expr.Wf.
From Coq Require Import Lia ZifyBool ZifyNat ZifyN Znumtheory.
Local Open Scope Z_scope.

Definition in_range (t : Z) : Prop := t = -1 \/ t = 0 \/ t = 1.

(* full transitivity of a three-way comparison on a triple, as a property of the three results *)
Definition FTz (xy yz xz : Z) : Prop :=
  (xy = -1 -> yz = -1 -> xz = -1) /\ (xy = 0 -> yz = 0 -> xz = 0) /\
  (xy = 0 -> yz = -1 -> xz = -1) /\ (xy = -1 -> yz = 0 -> xz = -1).
Definition FT {A} (c : A -> A -> Z) (x y z : A) : Prop := FTz (c x y) (c y z) (c x z).

Lemma Zcmp_sgn : forall a b, Zcmp a b = Z.sgn (a - b).
Proof. intros. unfold Zcmp. destruct (Z.eqb_spec a b), (Z.ltb_spec a b); lia. Qed.

Lemma Zcmp_lt : forall a b, Zcmp a b = -1 <-> a < b.
Proof. intros. rewrite Zcmp_sgn. lia. Qed.
Lemma Zcmp_eq : forall a b, Zcmp a b = 0 <-> a = b.
Proof. intros. rewrite Zcmp_sgn. lia. Qed.
Lemma Zcmp_gt : forall a b, Zcmp a b = 1 <-> b < a.
Proof. intros. rewrite Zcmp_sgn. lia. Qed.
Lemma Zcmp_range : forall a b, in_range (Zcmp a b).
Proof. intros. unfold in_range. rewrite Zcmp_sgn. lia. Qed.
Lemma Zcmp_antisym : forall a b, Zcmp a b = - Zcmp b a.
Proof. intros. rewrite !Zcmp_sgn. lia. Qed.
Lemma Zcmp_FT : forall a b c, FT Zcmp a b c.
Proof. intros. unfold FT, FTz. rewrite !Zcmp_sgn. lia. Qed.

Lemma Ncmp_range : forall a b, in_range (Ncmp a b).
Proof. intros. apply Zcmp_range. Qed.
Lemma Ncmp_antisym : forall a b, Ncmp a b = - Ncmp b a.
Proof. intros. apply Zcmp_antisym. Qed.
Lemma Ncmp_zero : forall a b, Ncmp a b = 0 <-> (a =? b)%N = true.
Proof. intros. unfold Ncmp. rewrite Zcmp_eq, N.eqb_eq. lia. Qed.
Lemma Ncmp_lt : forall a b, Ncmp a b = -1 <-> (a <? b)%N = true.
Proof. intros. unfold Ncmp. rewrite Zcmp_lt, N.ltb_lt. lia. Qed.

Lemma Ncmp_FTz : forall a b c, FTz (Ncmp a b) (Ncmp b c) (Ncmp a c).
Proof. intros. apply (Zcmp_FT (Z.of_N a) (Z.of_N b) (Z.of_N c)). Qed.

Definition lexZ (t u : Z) : Z := if t =? 0 then u else t.

Lemma lexZ_zero : forall t u, lexZ t u = 0 <-> t = 0 /\ u = 0.
Proof. unfold lexZ. intros. destruct (Z.eqb_spec t 0); lia. Qed.
Lemma lexZ_lt : forall t u, lexZ t u = -1 <-> t = -1 \/ t = 0 /\ u = -1.
Proof. unfold lexZ. intros. destruct (Z.eqb_spec t 0); lia. Qed.
Lemma lexZ_range : forall t u, in_range t -> in_range u -> in_range (lexZ t u).
Proof. unfold lexZ. intros. destruct (t =? 0); assumption. Qed.
(* the second components need be opposite only where the first are tied *)
Lemma lexZ_antisym_tied : forall t u t' u', t' = - t -> (t = 0 -> u' = - u) -> lexZ t' u' = - lexZ t u.
Proof. unfold lexZ. intros. subst. destruct (Z.eqb_spec t 0), (Z.eqb_spec (- t) 0); lia. Qed.
Lemma lexZ_antisym : forall t u t' u', t' = - t -> u' = - u -> lexZ t' u' = - lexZ t u.
Proof. intros. apply lexZ_antisym_tied; auto. Qed.
Lemma lexZ_0_r : forall t, lexZ t 0 = t.
Proof. unfold lexZ. intros. destruct (Z.eqb_spec t 0); congruence. Qed.
Lemma lexZ_assoc : forall t u v, lexZ (lexZ t u) v = lexZ t (lexZ u v).
Proof. unfold lexZ. intros. destruct (t =? 0) eqn:E; [reflexivity | rewrite E; reflexivity]. Qed.

(* the second components need be transitive only where the first are tied *)
Lemma FTz_lex : forall t1 t2 t3 u1 u2 u3,
  FTz t1 t2 t3 -> (t1 = 0 -> t2 = 0 -> FTz u1 u2 u3) ->
  FTz (lexZ t1 u1) (lexZ t2 u2) (lexZ t3 u3).
Proof.
  unfold FTz. intros t1 t2 t3 u1 u2 u3 T U. rewrite !lexZ_lt, !lexZ_zero. tauto.
Qed.

(* the shape in which the model writes a comparison by a key [t] followed by [u] *)
Lemma ite_lex : forall (e l : bool) t u,
  in_range t -> (t = 0 <-> e = true) -> (t = -1 <-> l = true) ->
  (if e then u else if l then -1 else 1) = lexZ t u.
Proof.
  intros e l t u R E L. unfold lexZ, in_range in *. destruct e, l, (Z.eqb_spec t 0); lia.
Qed.

Lemma bytes_cmp_cons : forall x a y b,
  bytes_cmp (x :: a) (y :: b) = lexZ (Ncmp x y) (bytes_cmp a b).
Proof. intros. apply ite_lex; [apply Zcmp_range | apply Ncmp_zero | apply Ncmp_lt]. Qed.

Lemma bytes_cmp_range : forall a b, in_range (bytes_cmp a b).
Proof.
  unfold in_range. induction a; destruct b; rewrite ?bytes_cmp_cons; cbn [bytes_cmp]; auto.
  apply lexZ_range; [apply Zcmp_range | apply IHa].
Qed.
Lemma bytes_cmp_eq : forall a b, bytes_cmp a b = 0 <-> a = b.
Proof.
  induction a; destruct b; rewrite ?bytes_cmp_cons; cbn [bytes_cmp]; try (split; [reflexivity || discriminate | discriminate]).
  - tauto.
  - rewrite lexZ_zero, Ncmp_zero, N.eqb_eq, IHa. split; [intros [-> ->]; reflexivity | intros H; inversion H; auto].
Qed.
Lemma bytes_cmp_antisym : forall a b, bytes_cmp a b = - bytes_cmp b a.
Proof.
  induction a; destruct b; rewrite ?bytes_cmp_cons; cbn [bytes_cmp]; try reflexivity.
  apply lexZ_antisym; [apply Zcmp_antisym | apply IHa].
Qed.
Lemma bytes_cmp_FT : forall a b c, FT bytes_cmp a b c.
Proof.
  induction a; destruct b; destruct c; unfold FT; rewrite ?bytes_cmp_cons; cbn [bytes_cmp];
    try (unfold FTz; repeat split; intros; (discriminate || reflexivity || assumption)).
  apply FTz_lex; [apply Ncmp_FTz | intros _ _; apply IHa].
Qed.
Lemma bytes_eqb_eq : forall a b, bytes_eqb a b = true <-> a = b.
Proof. intros. unfold bytes_eqb. rewrite Z.eqb_eq. apply bytes_cmp_eq. Qed.
Lemma bytes_eqb_refl : forall a, bytes_eqb a a = true.
Proof. intros. apply bytes_eqb_eq. reflexivity. Qed.

Lemma rat_canon : forall n1 d1 n2 d2,
  Z.gcd n1 (Zpos d1) = 1 -> Z.gcd n2 (Zpos d2) = 1 ->
  n1 * Zpos d2 = n2 * Zpos d1 -> n1 = n2 /\ d1 = d2.
Proof.
  intros n1 d1 n2 d2 G1 G2 E.
  assert (D12 : (Zpos d1 | Zpos d2)).
  { apply Z.gauss with (m := n1).
    - exists n2. lia.
    - rewrite Z.gcd_comm. exact G1. }
  assert (D21 : (Zpos d2 | Zpos d1)).
  { apply Z.gauss with (m := n2).
    - exists n1. lia.
    - rewrite Z.gcd_comm. exact G2. }
  assert (Zpos d1 = Zpos d2) by (apply Z.divide_antisym_nonneg; auto; lia).
  split; [nia | congruence].
Qed.

Lemma Qeq_pair_canon : forall n1 d1 n2 d2,
  (Z.gcd n1 (Zpos d1) =? 1) = true -> (Z.gcd n2 (Zpos d2) =? 1) = true ->
  Qeq_pair n1 d1 n2 d2 = true -> n1 = n2 /\ d1 = d2.
Proof.
  unfold Qeq_pair. intros. apply rat_canon; lia.
Qed.
Lemma Qeq_pair_refl : forall n d, Qeq_pair n d n d = true.
Proof. unfold Qeq_pair. intros. lia. Qed.
Lemma Qeq_pair_sym : forall n1 d1 n2 d2, Qeq_pair n1 d1 n2 d2 = Qeq_pair n2 d2 n1 d1.
Proof. intros. unfold Qeq_pair. apply Z.eqb_sym. Qed.
Lemma Qeq_pair_cmp : forall n1 d1 n2 d2, Qeq_pair n1 d1 n2 d2 = true <-> Qcmp_pair n1 d1 n2 d2 = 0.
Proof. unfold Qeq_pair, Qcmp_pair. intros. rewrite Zcmp_eq. lia. Qed.
Lemma Qcmp_pair_refl : forall n d, Qcmp_pair n d n d = 0.
Proof. intros. apply Qeq_pair_cmp, Qeq_pair_refl. Qed.

(* over the common denominator d1*d2*d3 the three comparisons are comparisons of integers *)
Lemma Qcmp_pair_FTz : forall n1 d1 n2 d2 n3 d3,
  FTz (Qcmp_pair n1 d1 n2 d2) (Qcmp_pair n2 d2 n3 d3) (Qcmp_pair n1 d1 n3 d3).
Proof.
  intros. unfold Qcmp_pair.
  assert (S : forall a b d, Zcmp a b = Zcmp (a * Zpos d) (b * Zpos d)).
  { intros. rewrite !Zcmp_sgn, <- Z.mul_sub_distr_r, Z.sgn_mul. apply eq_sym, Z.mul_1_r. }
  rewrite (S _ _ d3), (S (n2 * _) _ d1), (S (n1 * Z.pos d3) _ d2).
  replace (n2 * Z.pos d3 * Z.pos d1) with (n2 * Z.pos d1 * Z.pos d3) by ring.
  replace (n1 * Z.pos d3 * Z.pos d2) with (n1 * Z.pos d2 * Z.pos d3) by ring.
  replace (n3 * Z.pos d1 * Z.pos d2) with (n3 * Z.pos d2 * Z.pos d1) by ring.
  apply Zcmp_FT.
Qed.

(* doubles: under [dbl_ok], == and < are those of the integer key *)
Lemma dbl_ok_spec : forall b, dbl_ok b = true -> dbl_is_nan b = false /\ (b < W64)%N.
Proof. unfold dbl_ok. intros. lia. Qed.

Lemma dbl_eq_key : forall a b, dbl_ok a = true -> dbl_ok b = true ->
  dbl_eq a b = (dbl_key a =? dbl_key b).
Proof.
  intros a b Ha Hb. apply dbl_ok_spec in Ha. apply dbl_ok_spec in Hb. unfold dbl_eq.
  destruct Ha as [-> _]. destruct Hb as [-> _]. reflexivity.
Qed.
Lemma dbl_lt_key : forall a b, dbl_ok a = true -> dbl_ok b = true ->
  dbl_lt a b = (dbl_key a <? dbl_key b).
Proof.
  intros a b Ha Hb. apply dbl_ok_spec in Ha. apply dbl_ok_spec in Hb. unfold dbl_lt.
  destruct Ha as [-> _]. destruct Hb as [-> _]. reflexivity.
Qed.
Lemma dbl_eq_sym : forall a b, dbl_eq a b = dbl_eq b a.
Proof. intros. unfold dbl_eq. rewrite (Z.eqb_sym (dbl_key a)). destruct (dbl_is_nan a), (dbl_is_nan b); reflexivity. Qed.

(* the key is the magnitude, negated when the sign bit is set: +0.0 and -0.0 share key 0 *)
Definition dbl_sign_bit : N := 9223372036854775808.

Lemma dbl_key_val : forall b, (b < W64)%N ->
  dbl_key b = if (b <? dbl_sign_bit)%N then Z.of_N b else Z.of_N dbl_sign_bit - Z.of_N b.
Proof.
  intros b Hb. unfold dbl_key. fold dbl_sign_bit. cbv zeta.
  destruct (N.ltb_spec b dbl_sign_bit) as [L|L].
  - rewrite N.mod_small by exact L. reflexivity.
  - replace b with (b - dbl_sign_bit + 1 * dbl_sign_bit)%N at 1 by lia.
    rewrite N.mod_add, N.mod_small; unfold dbl_sign_bit, W64 in *; lia.
Qed.
(* the hashed bits are a function of the key: hence doubles that are == hash alike *)
Lemma dbl_hash_bits_key : forall b, (b < W64)%N ->
  dbl_hash_bits b = Z.to_N (if 0 <=? dbl_key b then dbl_key b else Z.of_N dbl_sign_bit - dbl_key b).
Proof.
  intros b Hb. rewrite (dbl_key_val b Hb). unfold dbl_hash_bits. fold dbl_sign_bit.
  destruct (N.ltb_spec b dbl_sign_bit), (N.eqb_spec b dbl_sign_bit);
    match goal with |- context[0 <=? ?k] => destruct (Z.leb_spec 0 k) end;
    unfold dbl_sign_bit, W64 in *; lia.
Qed.
Lemma dbl_eq_hash_bits : forall a b,
  dbl_ok a = true -> dbl_ok b = true -> dbl_eq a b = true -> dbl_hash_bits a = dbl_hash_bits b.
Proof.
  intros a b Ha Hb E. rewrite dbl_eq_key in E by assumption. apply Z.eqb_eq in E.
  apply dbl_ok_spec in Ha. apply dbl_ok_spec in Hb.
  rewrite !dbl_hash_bits_key, E by tauto. reflexivity.
Qed.

(* the conjuncts of [num_wf] as separate hypotheses *)
Ltac num_wf_split :=
  repeat match goal with
  | H : num_wf _ = true |- _ => cbn [num_wf] in H
  | H : (_ && _)%bool = true |- _ => apply andb_prop in H; destruct H
  end.

Lemma num_eqb_refl : forall a, num_wf a = true -> num_eqb a a = true.
Proof.
  destruct a; intros W; cbn [num_eqb]; num_wf_split;
    rewrite ?Qeq_pair_refl, ?dbl_eq_key, ?Z.eqb_refl by assumption; reflexivity.
Qed.

Lemma num_eqb_sym : forall a b, num_eqb a b = num_eqb b a.
Proof.
  destruct a, b; cbn [num_eqb]; try reflexivity;
    rewrite ?(Qeq_pair_sym n d), ?(Qeq_pair_sym rn rd), ?(Qeq_pair_sym imn imd),
            ?(dbl_eq_sym bits), ?(dbl_eq_sym re), ?(dbl_eq_sym im); try reflexivity; apply Z.eqb_sym.
Qed.

(* fractions in lowest terms that are [Qeq_pair] have the same fields: such a hypothesis becomes a substitution *)
Ltac qcanon :=
  repeat match goal with
  | H : Qeq_pair ?a ?b ?c ?d = true |- _ =>
      apply Qeq_pair_canon in H; [destruct H; subst c d | assumption | assumption]
  end.

(* on well-formed numbers eq is structural equality except for signed zeros of doubles *)
Lemma num_eqb_trans : forall a b c, num_wf a = true -> num_wf b = true -> num_wf c = true ->
  num_eqb a b = true -> num_eqb b c = true -> num_eqb a c = true.
Proof.
  destruct a, b; cbn [num_eqb]; try discriminate; destruct c; cbn [num_eqb]; try discriminate;
    intros Wa Wb Wc E1 E2; num_wf_split; rewrite ?dbl_eq_key in * by assumption.
  - lia.
  - qcanon. apply Qeq_pair_refl.
  - qcanon. rewrite !Qeq_pair_refl. reflexivity.
  - lia.
  - lia.
  - lia.
  - reflexivity.
Qed.

Lemma num_eqb_hash : forall a b, num_wf a = true -> num_wf b = true ->
  num_eqb a b = true -> hash_num a = hash_num b.
Proof.
  destruct a, b; cbn [num_eqb]; try discriminate; intros Wa Wb E; num_wf_split; cbn [hash_num].
  - apply Z.eqb_eq in E. subst. reflexivity.
  - qcanon. reflexivity.
  - qcanon. reflexivity.
  - rewrite (dbl_eq_hash_bits bits bits0) by assumption. reflexivity.
  - rewrite (dbl_eq_hash_bits re re0), (dbl_eq_hash_bits im im0) by assumption. reflexivity.
  - apply Z.eqb_eq in E. subst. reflexivity.
  - reflexivity.
Qed.

Lemma num_eqb_tc : forall a b, num_eqb a b = true -> num_type_code a = num_type_code b.
Proof. destruct a, b; cbn [num_eqb]; intros H; try discriminate H; reflexivity. Qed.

Lemma num_tc_same : forall a b, num_type_code a = num_type_code b ->
  match a, b with
  | NInt _, NInt _ | NRat _ _, NRat _ _ | NCplx _ _ _ _, NCplx _ _ _ _ | NDbl _, NDbl _
  | NCDbl _ _, NCDbl _ _ | NInf _, NInf _ | NNaN, NNaN => True
  | _, _ => False
  end.
Proof. destruct a, b; intros H; try exact I; vm_compute in H; discriminate. Qed.

(* the comparisons of the compound classes as lexicographic combinations *)
Lemma Qcmp_pair_ite : forall n1 d1 n2 d2 u,
  (if Qeq_pair n1 d1 n2 d2 then u else if Qcmp_pair n1 d1 n2 d2 =? -1 then -1 else 1) =
  lexZ (Qcmp_pair n1 d1 n2 d2) u.
Proof.
  intros. apply ite_lex; [apply Zcmp_range | symmetry; apply Qeq_pair_cmp | symmetry; apply Z.eqb_eq].
Qed.
Lemma cplx_cmp_lex : forall a1 b1 c1 d1 a2 b2 c2 d2,
  num_cmp_same (NCplx a1 b1 c1 d1) (NCplx a2 b2 c2 d2) =
  lexZ (Qcmp_pair a1 b1 a2 b2) (Qcmp_pair c1 d1 c2 d2).
Proof. intros. cbn [num_cmp_same]. rewrite !Qcmp_pair_ite, lexZ_0_r. reflexivity. Qed.
Lemma dbl_cmp_key : forall x y, dbl_ok x = true -> dbl_ok y = true ->
  num_cmp_same (NDbl x) (NDbl y) = Zcmp (dbl_key x) (dbl_key y).
Proof. intros. cbn [num_cmp_same]. rewrite dbl_eq_key, dbl_lt_key by assumption. reflexivity. Qed.
Lemma cdbl_cmp_lex : forall r1 i1 r2 i2,
  dbl_ok r1 = true -> dbl_ok i1 = true -> dbl_ok r2 = true -> dbl_ok i2 = true ->
  num_cmp_same (NCDbl r1 i1) (NCDbl r2 i2) =
  lexZ (Zcmp (dbl_key r1) (dbl_key r2)) (Zcmp (dbl_key i1) (dbl_key i2)).
Proof.
  intros. cbn [num_cmp_same]. rewrite !dbl_eq_key, !dbl_lt_key by assumption. unfold Zcmp, lexZ.
  destruct (dbl_key r1 =? dbl_key r2); [reflexivity|]. destruct (dbl_key r1 <? dbl_key r2); reflexivity.
Qed.

Lemma num_cmp_lex : forall a b,
  num_cmp a b = lexZ (Ncmp (num_type_code a) (num_type_code b)) (num_cmp_same a b).
Proof. intros. apply ite_lex; [apply Zcmp_range | apply Ncmp_zero | apply Ncmp_lt]. Qed.

Lemma num_cmp_same_range : forall a b, in_range (num_cmp_same a b).
Proof.
  destruct a, b; rewrite ?cplx_cmp_lex; try (right; left; reflexivity);
    try apply lexZ_range; try apply Zcmp_range; cbn [num_cmp_same].
  - destruct (dbl_eq bits bits0), (dbl_lt bits bits0); unfold in_range; auto.
  - destruct (dbl_eq re re0), (dbl_eq im im0), (dbl_lt im im0), (dbl_lt re re0); unfold in_range; cbn [andb]; auto.
Qed.
Lemma num_cmp_range : forall a b, in_range (num_cmp a b).
Proof. intros. rewrite num_cmp_lex. apply lexZ_range; [apply Zcmp_range | apply num_cmp_same_range]. Qed.

Lemma num_cmp_same_eq_iff : forall a b, num_wf a = true -> num_wf b = true ->
  num_type_code a = num_type_code b -> (num_cmp_same a b = 0 <-> num_eqb a b = true).
Proof.
  intros a b Wa Wb T. apply num_tc_same in T.
  destruct a, b; try contradiction; num_wf_split;
    rewrite ?cplx_cmp_lex, ?dbl_cmp_key, ?cdbl_cmp_lex by assumption;
    cbn [num_cmp_same num_eqb]; rewrite ?dbl_eq_key by assumption;
    rewrite ?lexZ_zero, ?andb_true_iff, ?Qeq_pair_cmp, ?Z.eqb_eq; try apply Zcmp_eq.
  - reflexivity.
  - unfold Qcmp_pair. rewrite !Zcmp_eq. reflexivity.
  - rewrite !Zcmp_eq. reflexivity.
  - tauto.
Qed.

Lemma num_cmp_eq_iff : forall a b, num_wf a = true -> num_wf b = true ->
  (num_cmp a b = 0 <-> num_eqb a b = true).
Proof.
  intros a b Wa Wb. rewrite num_cmp_lex, lexZ_zero, Ncmp_zero, N.eqb_eq. split.
  - intros [T E]. apply num_cmp_same_eq_iff; assumption.
  - intros E. pose proof (num_eqb_tc a b E) as T. split; [exact T|]. apply num_cmp_same_eq_iff; assumption.
Qed.

Lemma num_cmp_same_antisym : forall a b, num_wf a = true -> num_wf b = true ->
  num_cmp_same a b = - num_cmp_same b a.
Proof.
  destruct a, b; try reflexivity; intros Wa Wb; num_wf_split;
    rewrite ?cplx_cmp_lex, ?dbl_cmp_key, ?cdbl_cmp_lex by assumption;
    repeat apply lexZ_antisym; apply Zcmp_antisym.
Qed.

Lemma num_cmp_antisym : forall a b, num_wf a = true -> num_wf b = true ->
  num_cmp a b = - num_cmp b a.
Proof.
  intros a b Wa Wb. rewrite !num_cmp_lex.
  apply lexZ_antisym; [apply Zcmp_antisym | apply num_cmp_same_antisym; assumption].
Qed.

Lemma num_cmp_same_FT : forall a b c, num_wf a = true -> num_wf b = true -> num_wf c = true ->
  num_type_code a = num_type_code b -> num_type_code b = num_type_code c ->
  FT num_cmp_same a b c.
Proof.
  intros a b c Wa Wb Wc T1 T2. apply num_tc_same in T1. apply num_tc_same in T2.
  destruct a, b; try contradiction; destruct c; try contradiction; num_wf_split;
    unfold FT; rewrite ?cplx_cmp_lex, ?dbl_cmp_key, ?cdbl_cmp_lex by assumption;
    repeat (apply FTz_lex; [|intros _ _]);
    first [apply Zcmp_FT | apply Qcmp_pair_FTz | unfold FTz; tauto].
Qed.

Lemma num_cmp_FT : forall a b c, num_wf a = true -> num_wf b = true -> num_wf c = true ->
  FT num_cmp a b c.
Proof.
  intros a b c Wa Wb Wc. unfold FT. rewrite !num_cmp_lex. apply FTz_lex.
  - apply Ncmp_FTz.
  - intros T1 T2. apply Ncmp_zero, N.eqb_eq in T1. apply Ncmp_zero, N.eqb_eq in T2.
    apply num_cmp_same_FT; assumption.
Qed.

(* A trap for every file above this one.  Loading ZifyBool (needed here for the [lia] calls on
   [=?] / [<?] hypotheses) sets [Zify.zify_post_hook], globally, to a tactic that splits on every
   boolean [zify] meets; from then on each [lia] in any file that requires this one costs
   several times as much to run and to check.  Here the hook is put back to its default.  A file above
   that wants [lia] to reason about booleans has to set the hook again itself. *)
Ltac Zify.zify_post_hook ::= idtac.
