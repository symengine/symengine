(* pow(a, n) for an Integer n on the power-product fragment: numbers, atoms, powers of atoms and
   products (Mul::power_num with an Integer exponent): closure, canonical form (C03). *)
From SE Require Export Expr.ArithMulProofs.
From SE Require Import Num.NumSpec Num.NumQi Num.NumC05 Expr.CmpProofs.
From Coq Require Import QArith Lia Permutation Setoid Morphisms.
Local Open Scope Z_scope.

(* the exponent is in the range GMP accepts and 0 is not raised to a negative power *)
Definition npow_ok (c : number) (n : Z) : bool :=
  pow_in_range c n && ((0 <=? n) || negb (num_is_zero c)).

Lemma num_pow_x : forall c n, xok c = true -> npow_ok c n = true ->
  exists r, num_pow c (NInt n) = Ok r /\ xok r = true /\ qi_eq (qval r) (qi_powz (qval c) n).
Proof.
  intros c n Xc H. unfold npow_ok in H. apply andb_prop in H. destruct H as [R Z].
  assert (HZ : 0 <= n \/ ~ qi_is_zero (qval c)).
  { apply orb_prop in Z. destruct Z as [Z|Z]; [left; now apply Z.leb_le|right].
    intros Q. apply (is_zero_val c Xc) in Q. rewrite Q in Z. discriminate. }
  destruct (num_powint_correct c n (qval c) (qval_some c Xc) R HZ) as (r & z & E & V & Q).
  exists r. split; [exact E|].
  assert (EX : num_is_exact r = true) by (destruct r; cbn in V; try discriminate; reflexivity).
  destruct (pow_good c n r (xok_exact _ Xc) (xok_nwf _ Xc) E) as [W _].
  split; [unfold xok; now rewrite EX, W|]. unfold qval. now rewrite V.
Qed.

Definition xpow (c : number) (n : Z) : number := match num_pow c (NInt n) with Ok r => r | _ => NInt 0 end.
Lemma xpow_spec : forall c n, xok c = true -> npow_ok c n = true ->
  num_pow c (NInt n) = Ok (xpow c n) /\ xok (xpow c n) = true /\ qi_eq (qval (xpow c n)) (qi_powz (qval c) n).
Proof. intros c n X H. destruct (num_pow_x c n X H) as (r & E & Xr & V). unfold xpow. rewrite E. auto. Qed.

(* product of two Integer / Rational exponents, one of them an Integer *)
Lemma xmul_exp : forall v n, qexp_ok v = true -> n <> 0 -> qexp_ok (xmul v (NInt n)) = true.
Proof.
  intros v n Q NZ. pose proof (qexp_ok_xok _ Q) as Xv. pose proof (xmul_xok v (NInt n) Xv (xok_int n)) as X.
  pose proof (xmul_val v (NInt n) Xv (xok_int n)) as V.
  unfold qexp_ok. rewrite X. cbn [andb].
  assert (NZv : ~ qi_is_zero (qval v)).
  { intros Z. apply (is_zero_val v Xv) in Z. rewrite (qexp_ok_nz _ Q) in Z. discriminate. }
  assert (NZn : ~ qi_is_zero (qval (NInt n))).
  { rewrite qval_int. intros [Z _]. cbn [fst] in Z. unfold Qeq in Z. cbn in Z. lia. }
  assert (NZp : num_is_zero (xmul v (NInt n)) = false).
  { destruct (num_is_zero (xmul v (NInt n))) eqn:Z; [|reflexivity]. exfalso.
    apply (is_zero_val _ X) in Z. unfold qi_is_zero in Z. rewrite V in Z. exact (qi_mul_nonzero _ _ NZv NZn Z). }
  rewrite NZp. cbn [negb andb].
  destruct (xmul v (NInt n)) as [z|p q|rn rd imn imd| | | | ] eqn:E; try reflexivity; try discriminate X.
  exfalso. destruct (xok_cplx_low _ _ _ _ X) as (_ & _ & NI). apply NI.
  destruct V as [_ V2]. unfold qval in V2. cbn [valQi snd] in V2.
  unfold qexp_ok in Q. apply andb_prop in Q. destruct Q as [_ K].
  destruct v; try discriminate K; cbn [valQi qi_mul fst snd] in V2; unfold Qeq in V2; cbn in V2; lia.
Qed.

(* the calls made by power_num, on numbers *)
Lemma eqb_int_lit : forall n z, expr_eqb (ENum (NInt n)) (ENum (NInt z)) = (n =? z).
Proof. intros. rewrite eqb_ENum. reflexivity. Qed.

(* number ** Integer as pow() computes it, for an exponent other than 0 *)
Definition npow (c : number) (n : Z) : number :=
  if n =? 1 then c
  else if SE.Expr.Cmp.num_eqb c (NInt 0) then NInt 0
  else if SE.Expr.Cmp.num_eqb c (NInt (-1)) then (if Z.even n then NInt 1 else NInt (-1))
  else xpow c n.

Lemma rE_pow_num : forall f c n, xok c = true -> npow_ok c n = true -> n <> 0 ->
  rE (arith (S f)) (CPow (ENum c) (ENum (NInt n))) = Ok (ENum (npow c n)) /\ xok (npow c n) = true.
Proof.
  intros f c n Xc H NZ. unfold rE, npow. rewrite arith_S. cbn [step]. unfold step_pow. cbv zeta.
  cbn [num_is_zero]. rewrite (proj2 (Z.eqb_neq n 0) NZ).
  unfold e_one, e_zero, e_minus_one, e_int. rewrite eqb_int_lit.
  destruct (n =? 1) eqn:N1; [cbn [bind]; auto|].
  rewrite !eqb_ENum.
  destruct (SE.Expr.Cmp.num_eqb c (NInt 0)) eqn:C0.
  - cbn [num_is_positive num_is_negative]. destruct (0 <? n) eqn:P; [cbn [bind]; auto|].
    exfalso. apply cmp_num_eqb_eq in C0; auto. subst c. unfold npow_ok in H. apply andb_prop in H. destruct H as [_ H].
    cbn [num_is_zero Z.eqb negb] in H. rewrite orb_false_r in H. apply Z.leb_le in H.
    assert (0 < n) by lia. apply Z.ltb_lt in H0. congruence.
  - destruct (SE.Expr.Cmp.num_eqb c (NInt (-1))) eqn:C1.
    + cbn [bind]. destruct (Z.even n); auto.
    + destruct (xpow_spec c n Xc H) as (E & Xr & _). rewrite E. cbn [bind]. auto.
Qed.

Lemma mfd_nil : forall c, mul_from_dict c [] = ENum c.
Proof. intros c. unfold mul_from_dict. destruct (num_is_zero c); reflexivity. Qed.

Lemma rE_mul_num : forall rec v w, xok v = true -> xok w = true ->
  rE (fun c => step rec c) (CMul (ENum v) (ENum w)) = Ok (ENum (xmul v w)).
Proof.
  intros rec v w Xv Xw. unfold rE. cbn [step]. unfold step_mul. cbn [mul_operand].
  rewrite (num_mul_ok (NInt 1) v (xok_int 1) Xv). cbn [bind fst snd]. rewrite xmul_1_l by assumption.
  rewrite (num_mul_ok v w Xv Xw). cbn [bind fst snd]. now rewrite mfd_nil.
Qed.
Lemma rE_mul_num_S : forall f v w, xok v = true -> xok w = true ->
  rE (arith (S f)) (CMul (ENum v) (ENum w)) = Ok (ENum (xmul v w)).
Proof. intros f v w Xv Xw. apply (rE_mul_num (arith f)); assumption. Qed.

(* Mul::power_num with an Integer exponent *)
Definition pow_entries (d : mdict) (n : Z) : mdict :=
  map (fun p => (fst p, ENum (xmul (num_of (snd p)) (NInt n)))) d.

Lemma pow_entries_ok : forall d n, mentries_ok d = true -> n <> 0 -> mentries_ok (pow_entries d n) = true.
Proof.
  intros d n D NZ. unfold mentries_ok, pow_entries. apply forallb_forall. intros p' Hp'.
  apply in_map_iff in Hp'. destruct Hp' as ([k v] & <- & Hp).
  destruct (mentries_in _ k v D Hp) as (T & q & -> & Q).
  unfold mentry_ok. cbn [fst snd num_of]. rewrite T. cbn [andb]. now apply xmul_exp.
Qed.

Lemma power_num_loop : forall f n sd coef d, n <> 0 -> mentries_ok sd = true -> mentries_ok d = true ->
  fold_res (fun st p =>
     bind (rE (arith (S (S f))) (CMul (snd p) (ENum (NInt n)))) (fun ne =>
     match ne, fst p with
     | ENum (NInt z), EMul kc kd => rS (arith (S (S f))) (CPowerNum kc kd (fst st) (snd st) (NInt z))
     | _, _ => rS (arith (S (S f))) (CDatn (fst st) (snd st) ne (fst p))
     end)) sd (coef, d) = Ok (coef, dmerge d (pow_entries sd n)).
Proof.
  intros f n. induction sd as [|[k v] sd IH]; intros coef d NZ SD D; cbn [fold_res]; [reflexivity|].
  apply mentries_cons_inv in SD. destruct SD as (q & -> & T & Q & SD). destruct (atom_ok_inv _ T) as (_ & _ & A).
  cbn [fst snd]. rewrite rE_mul_num_S by auto using qexp_ok_xok, xok_int. cbn [bind].
  pose proof (xmul_exp q n Q NZ) as Q'.
  assert (DAT : match ENum (xmul q (NInt n)), k with
                | ENum (NInt z), EMul kc kd => rS (arith (S (S f))) (CPowerNum kc kd coef d (NInt z))
                | _, _ => rS (arith (S (S f))) (CDatn coef d (ENum (xmul q (NInt n))) k)
                end = Ok (coef, dstep d (k, ENum (xmul q (NInt n))))).
  { rewrite <- (rS_datn_frag (S f) coef d (xmul q (NInt n)) k D T Q').
    destruct (xmul q (NInt n)); try reflexivity. destruct k; try discriminate A; reflexivity. }
  rewrite DAT. cbn [bind]. unfold pow_entries. cbn [map fst snd num_of]. unfold dmerge. cbn [fold_left].
  apply IH; auto. now apply dstep_entries.
Qed.

Lemma step_power_num_int : forall f sc sd n, xok sc = true -> npow_ok sc n = true -> n <> 0 -> mentries_ok sd = true ->
  step_power_num (arith (S (S f))) sc sd (NInt 1) [] (NInt n) = Ok (npow sc n, dmerge [] (pow_entries sd n)).
Proof.
  intros f sc sd n Xc H NZ SD. unfold step_power_num. cbn [num_is_zero]. rewrite (proj2 (Z.eqb_neq n 0) NZ).
  destruct (rE_pow_num (S f) sc n Xc H NZ) as [E Xr]. rewrite E. cbn [bind].
  rewrite power_num_loop by (auto; reflexivity). cbn [bind fst snd].
  rewrite (num_mul_ok (NInt 1) _ (xok_int 1) Xr). cbn [bind]. now rewrite xmul_1_l.
Qed.

(* pow(a, n) *)
Definition pow_operand_ok (a : expr) (n : Z) : bool :=
  mul_operand_ok a &&
  match a with
  | ENum c => npow_ok c n
  | EMul c _ => npow_ok c n
  | _ => true
  end.

Lemma pow_last_atom : forall rec a b, is_atom a = true -> pow_last rec a b = Ok (EPow a b).
Proof. intros rec a b A. destruct a; try discriminate A; reflexivity. Qed.

Lemma pow_by_number_atom : forall rec a e last, is_atom a = true -> num_is_exact e = true ->
  pow_by_number rec a (ENum e) last = last.
Proof.
  intros rec a e last A X. unfold pow_by_number. rewrite X.
  destruct a; try discriminate A; destruct (expr_eqb _ e_E); reflexivity.
Qed.

(* an Integer exponent other than 0 and 1 passes the first rules of pow() when the base is not a Number *)
Lemma pow_first_int : forall a n rest, n <> 0 -> n <> 1 -> ctor_kind a <> 0%N ->
  pow_first a (ENum (NInt n)) rest = rest.
Proof.
  intros a n rest NZ N1 K. unfold pow_first. cbn [num_is_zero]. rewrite (proj2 (Z.eqb_neq n 0) NZ).
  unfold e_one, e_zero, e_minus_one, e_int. rewrite eqb_int_lit, (proj2 (Z.eqb_neq n 1) N1).
  now rewrite !(eqb_num_r _ a K).
Qed.

Lemma step_pow_atom : forall rec a e, atom_ok a = true -> qexp_ok e = true ->
  step_pow rec a (ENum e) = Ok (if SE.Expr.Cmp.num_eqb e (NInt 1) then a else EPow a (ENum e)).
Proof.
  intros rec a e T Q. destruct (atom_ok_inv _ T) as (_ & _ & A).
  rewrite step_pow_eq, pow_last_atom, pow_by_number_atom by auto using xok_exact, qexp_ok_xok.
  unfold pow_first. rewrite (qexp_ok_nz _ Q). unfold e_one, e_zero, e_minus_one, e_int. rewrite eqb_ENum.
  destruct (SE.Expr.Cmp.num_eqb e (NInt 1)); [reflexivity|].
  assert (K : ctor_kind a <> 0%N) by (destruct a; try discriminate A; discriminate).
  rewrite !(eqb_num_r _ a K). reflexivity.
Qed.

Lemma qexp_int : forall n, n <> 0 -> qexp_ok (NInt n) = true.
Proof. intros n NZ. unfold qexp_ok. cbn [xok num_is_exact NumModel.num_wf num_is_zero andb]. now rewrite (proj2 (Z.eqb_neq n 0) NZ). Qed.

Lemma pow_atom_ok : forall a e, atom_ok a = true -> qexp_ok e = true ->
  mul_operand_ok (if SE.Expr.Cmp.num_eqb e (NInt 1) then a else EPow a (ENum e)) = true.
Proof.
  intros a e T Q. destruct (SE.Expr.Cmp.num_eqb e (NInt 1)) eqn:E; [now apply atom_operand|].
  assert (NE : e <> NInt 1) by (intros ->; discriminate E). destruct (qexp_not_one e Q NE) as [O _].
  unfold mul_operand_ok. cbn [mul_operand_ok_gen]. now rewrite T, Q, O.
Qed.

(* the four shapes of an operand of the fragment *)
Lemma mul_operand_shape : forall a, mul_operand_ok a = true ->
  (exists c, a = ENum c /\ xok c = true) \/
  (exists c d, a = EMul c d /\ xok c = true /\ mentries_ok d = true) \/
  (exists b q, a = EPow b (ENum q) /\ atom_ok b = true /\ qexp_ok q = true) \/ atom_ok a = true.
Proof.
  intros a Ha. destruct (mul_operand_ok_terms _ a Ha) as [Xc D]. unfold mconst, mterms in Xc, D.
  unfold mul_operand_ok in Ha. destruct a; cbn [mul_operand_ok_gen mlin fst snd] in *; eauto 8.
  destruct a2; try discriminate Ha. apply andb_prop in Ha. destruct Ha as [Ha _]. apply andb_prop in Ha.
  right. right. left. destruct Ha. eauto 6.
Qed.

(* pow(a, n): the result *)
Definition pow_int_result (a : expr) (n : Z) : expr :=
  if n =? 0 then e_one else if n =? 1 then a else
  match a with
  | ENum c => ENum (npow c n)
  | EMul c d => mul_from_dict (npow c n) (dmerge [] (pow_entries d n))
  | EPow b e =>
      let q := xmul (num_of e) (NInt n) in
      if SE.Expr.Cmp.num_eqb q (NInt 1) then b else EPow b (ENum q)
  | _ => EPow a (ENum (NInt n))
  end.

Theorem e_pow_int_spec : forall f a n, pow_operand_ok a n = true ->
  e_pow (S (S (S (S f)))) a (ENum (NInt n)) = Ok (pow_int_result a n).
Proof.
  intros f a n H. unfold pow_operand_ok in H. apply andb_prop in H. destruct H as [Ha Hn].
  unfold e_pow, pow_int_result.
  destruct (Z.eq_dec n 0) as [->|NZ]; [reflexivity|]. rewrite (proj2 (Z.eqb_neq n 0) NZ).
  destruct (Z.eq_dec n 1) as [->|N1].
  { unfold rE. rewrite arith_S. cbn [step]. unfold step_pow. cbv zeta. cbn [num_is_zero Z.eqb].
    replace (expr_eqb (ENum (NInt 1)) e_one) with true by reflexivity. reflexivity. }
  rewrite (proj2 (Z.eqb_neq n 1) N1).
  destruct (mul_operand_shape a Ha) as [(c & -> & Xc)|[(c & d & -> & Xc & D)|[(b & q & -> & T & Q)|T]]].
  - apply (rE_pow_num _ c n Xc Hn NZ).
  - unfold rE. rewrite arith_S. cbn [step]. rewrite step_pow_eq, pow_first_int by (auto; discriminate).
    cbn [pow_by_number]. unfold rS. rewrite arith_S. cbn [step].
    rewrite (step_power_num_int f c d n Xc Hn NZ D). reflexivity.
  - unfold rE at 1. rewrite arith_S. cbn [step]. rewrite step_pow_eq, pow_first_int by (auto; discriminate).
    cbn [pow_by_number pow_last is_Integer num_is_exact negb num_of].
    rewrite rE_mul_num_S by auto using qexp_ok_xok, xok_int. cbn [bind].
    unfold rE. rewrite arith_S. cbn [step]. rewrite step_pow_atom by auto using xmul_exp.
    destruct (expr_eqb _ e_E); reflexivity.
  - pose proof (qexp_int n NZ) as Q. destruct (atom_ok_inv _ T) as (_ & _ & A).
    unfold rE. rewrite arith_S. cbn [step]. rewrite step_pow_atom by assumption.
    cbn [SE.Expr.Cmp.num_eqb]. rewrite (proj2 (Z.eqb_neq n 1) N1). destruct a; try discriminate A; reflexivity.
Qed.

Lemma pow_int_result_good : forall a n, pow_operand_ok a n = true ->
  let r := pow_int_result a n in mul_operand_ok r = true /\ canonical r = true /\ wf r = true.
Proof.
  intros a n H. cbv zeta.
  enough (G : mul_operand_ok (pow_int_result a n) = true) by (split; [exact G | now apply (mul_operand_good false)]).
  unfold pow_operand_ok in H. apply andb_prop in H. destruct H as [Ha Hn]. unfold pow_int_result.
  destruct (Z.eq_dec n 0) as [->|NZ]; [reflexivity|]. rewrite (proj2 (Z.eqb_neq n 0) NZ).
  destruct (Z.eq_dec n 1) as [->|N1]; [exact Ha|]. rewrite (proj2 (Z.eqb_neq n 1) N1).
  destruct (mul_operand_shape a Ha) as [(c & -> & Xc)|[(c & d & -> & Xc & D)|[(b & q & -> & T & Q)|T]]].
  - apply (rE_pow_num 0 c n Xc Hn NZ).
  - apply mfd_closed; [apply (rE_pow_num 0 c n Xc Hn NZ) | | discriminate].
    apply dmerge_entries; [reflexivity | now apply pow_entries_ok].
  - cbn [num_of]. apply pow_atom_ok; auto using xmul_exp.
  - destruct (atom_ok_inv _ T) as (_ & _ & A). pose proof (pow_atom_ok a (NInt n) T (qexp_int n NZ)) as R.
    cbn [SE.Expr.Cmp.num_eqb] in R. rewrite (proj2 (Z.eqb_neq n 1) N1) in R.
    destruct a; try discriminate A; exact R.
Qed.

Theorem pow_int_total_closed : forall f a n, pow_operand_ok a n = true ->
  exists r, e_pow (S (S (S (S f)))) a (ENum (NInt n)) = Ok r /\
    mul_operand_ok r = true /\ canonical r = true /\ wf r = true.
Proof.
  intros f a n H. exists (pow_int_result a n). split; [now apply e_pow_int_spec | now apply pow_int_result_good].
Qed.

Theorem pow_int_canonical : forall fuel a n r, pow_operand_ok a n = true ->
  e_pow fuel a (ENum (NInt n)) = Ok r -> mul_operand_ok r = true /\ canonical r = true /\ wf r = true.
Proof.
  intros fuel a n r H E.
  rewrite (e_pow_det _ _ _ _ _ _ E (e_pow_int_spec fuel a n H)). now apply pow_int_result_good.
Qed.

(* div(a, b) = mul(a, pow(b, -1)) *)
Lemma e_div_inv : forall fuel a b r, pow_operand_ok b (-1) = true -> e_div fuel a b = Ok r ->
  exists p, e_pow fuel b e_minus_one = Ok p /\ e_mul fuel a p = Ok r.
Proof.
  intros fuel a b r Hb E. unfold e_div in E.
  assert (NZ : is_number_and_zero b = false).
  { unfold pow_operand_ok in Hb. apply andb_prop in Hb. destruct Hb as [_ Hb].
    destruct b; try reflexivity. cbn [is_number_and_zero]. unfold npow_ok in Hb. apply andb_prop in Hb. destruct Hb as [_ Hb].
    cbn [Z.leb orb] in Hb. destruct (num_is_zero n); [discriminate Hb | reflexivity]. }
  rewrite NZ in E. destruct (e_pow fuel b e_minus_one) as [p| | |]; try discriminate E. eauto.
Qed.

Theorem div_canonical : forall fuel a b r, mul_operand_ok a = true -> pow_operand_ok b (-1) = true ->
  e_div fuel a b = Ok r -> mul_operand_ok r = true /\ canonical r = true /\ wf r = true.
Proof.
  intros fuel a b r Ha Hb E. destruct (e_div_inv fuel a b r Hb E) as (p & P & M).
  destruct (pow_int_canonical fuel b (-1) p Hb P) as (Hp & _ & _).
  exact (mul_canonical fuel a p r Ha Hp M).
Qed.
