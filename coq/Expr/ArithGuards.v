(* Boolean guards: the hypotheses under which the theorems about the arithmetic model are stated
   (C03 / C04 / C07).  Definitions only (model side): the checks evaluate them on implementation
   dumps to count how many explored inputs satisfy the hypotheses of the theorems. *)
From SE Require Export Expr.Canon Expr.Wf.
Local Open Scope Z_scope.

(* an exact number (Integer, Rational, Complex) in the normal form of its class *)
Definition xok (n : number) : bool := num_is_exact n && NumModel.num_wf n.

(* a legal key of an Add dictionary: well formed, canonical, not a Number, not an Add (a nested Add
   key is the non-uniqueness of DESIGN row 42), a Mul key has coefficient 1 and >= 2 factors, a Pow
   key is also legal as the single entry of a Mul *)
Definition term_ok (t : expr) : bool :=
  wf t && canonical t &&
  match t with
  | ENum _ | EAdd _ _ => false
  | EMul c d => match c with NInt 1 => (2 <=? length d)%nat | _ => false end
  | EPow b e => mul_entry_canonical (b, e)
  | _ => true
  end.

(* the linear form  const + sum coefficient * term  that add() reads off an operand *)
Definition lin_of (x : expr) : number * adict :=
  match x with
  | ENum n => (n, [])
  | EAdd c d => (c, d)
  | _ => let ct := as_coef_term x in (NInt 0, [(snd ct, fst ct)])
  end.

Definition entry_ok (p : expr * number) : bool :=
  term_ok (fst p) && xok (snd p) && negb (num_is_zero (snd p)).
Definition adict_ok (d : adict) : bool := forallb entry_ok d && pairwise_ne (map fst d).
Definition lin_ok (cd : number * adict) : bool := xok (fst cd) && adict_ok (snd cd).

(* operands of add / sub / addv covered by the theorems *)
Definition add_operand_ok (x : expr) : bool := lin_ok (lin_of x).

(* the power-product fragment of mul / pow / div *)
(* bases: anything that is not a Number, a Mul or a Pow (symbols, constants, function applications,
   sums), well formed and canonical *)
Definition is_atom (k : expr) : bool :=
  match k with ENum _ | EMul _ _ | EPow _ _ => false | _ => true end.
Definition atom_ok (k : expr) : bool := wf k && canonical k && is_atom k.
(* exponents: non-zero Integers and Rationals in normal form *)
Definition qexp_ok (n : number) : bool :=
  xok n && negb (num_is_zero n) && match n with NInt _ | NRat _ _ => true | _ => false end.
Definition mentry_ok (p : expr * expr) : bool :=
  atom_ok (fst p) && match snd p with ENum n => qexp_ok n | _ => false end.
Definition mentries_ok (d : mdict) : bool := forallb mentry_ok d.
Fixpoint msorted (d : mdict) : bool :=
  match d with
  | [] => true
  | p :: r => match r with [] => true | q :: _ => expr_keyless (fst p) (fst q) && msorted r end
  end.
Definition mdict_ok (d : mdict) : bool := mentries_ok d && msorted d.

(* operands of mul / div / integer pow covered by the theorems; [sorted] = also require the Mul
   dictionaries to be strictly sorted (needed for uniqueness, C04; not for C03 / C07) *)
Definition mul_operand_ok_gen (sorted : bool) (x : expr) : bool :=
  match x with
  | ENum n => xok n
  | EMul c d =>
      xok c && negb (num_is_zero c) && mentries_ok d && (if sorted then msorted d else true)
      && negb (match d with [] => true | _ => false end)
      && negb (num_is_one c && match d with [_] => true | _ => false end)
  | EPow b (ENum n) => atom_ok b && qexp_ok n && negb (num_is_one n)
  | EPow _ _ => false
  | _ => atom_ok x
  end.
Definition mul_operand_ok (x : expr) : bool := mul_operand_ok_gen false x.
Definition mul_operand_sorted (x : expr) : bool := mul_operand_ok_gen true x.
