(* Fuel independence of [eqb] / [cmp] and fuel-free unfolding equations for [expr_eqb] and
   [expr_cmp]; sizes of children; pair lists flattened to element lists. *)
From SE Require Export Expr.NumProofs.
From Coq Require Import Lia.
Local Open Scope Z_scope.

Lemma size_pos : forall e, (1 <= size e)%nat.
Proof. destruct e; cbn [size]; lia. Qed.

(* a list of pairs as the list of its components, in order *)
Definition flat (l : list (expr * expr)) : list expr := flat_map (fun p => [fst p; snd p]) l.

Lemma size_flat : forall l,
  fold_right (fun p acc => size (fst p) + size (snd p) + acc)%nat 0%nat l =
  fold_right (fun x acc => size x + acc)%nat 0%nat (flat l).
Proof. unfold flat. induction l; cbn [fold_right flat_map app]; [reflexivity|]. rewrite IHl. lia. Qed.

Lemma in_size_list : forall x l, In x l ->
  (size x <= fold_right (fun x acc => size x + acc) 0 l)%nat.
Proof.
  induction l; cbn [In fold_right]; [tauto|]. intros [->|H]; [lia|]. apply IHl in H. lia.
Qed.
Lemma in_size_flat : forall x l, In x (flat l) ->
  (size x <= fold_right (fun p acc => size (fst p) + size (snd p) + acc) 0 l)%nat.
Proof. intros. rewrite size_flat. apply in_size_list. assumption. Qed.
Lemma in_size_keys : forall x (l : list (expr * number)), In x (map fst l) ->
  (size x < fold_right (fun p acc => size (fst p) + 1 + acc) 0 l)%nat.
Proof.
  induction l; cbn [In map fold_right]; [tauto|]. intros [<-|H]; [lia|]. apply IHl in H. lia.
Qed.

(* a size inequality between a node and an element of one of its lists: the membership hypotheses
   become size bounds ([in_size_*]), the rest is arithmetic *)
Ltac szb :=
  repeat match goal with
  | H : In _ (map fst _) |- _ => apply in_size_keys in H
  | H : In _ (flat _) |- _ => apply in_size_flat in H
  | H : In _ _ |- _ => apply in_size_list in H
  end; cbn [size] in *; lia.

Lemma pairs_eqb_flat : forall r l1 l2, pairs_eqb r l1 l2 = list_eqb r (flat l1) (flat l2).
Proof.
  induction l1 as [|[k1 v1] l1 IH]; destruct l2 as [|[k2 v2] l2]; cbn; try reflexivity.
  unfold flat in IH. rewrite IH, andb_assoc. reflexivity.
Qed.
Lemma pairs_lex_cmp_flat : forall c l1 l2, pairs_lex_cmp c l1 l2 = lex_cmp c (flat l1) (flat l2).
Proof.
  induction l1 as [|[k1 v1] l1 IH]; destruct l2 as [|[k2 v2] l2]; cbn; try reflexivity.
  unfold flat in IH. rewrite IH. reflexivity.
Qed.
Lemma length_flat : forall l, length (flat l) = (2 * length l)%nat.
Proof. induction l; cbn; [reflexivity|]. unfold flat in IHl. rewrite IHl. lia. Qed.
Lemma pairs_sized_cmp_flat : forall c l1 l2, pairs_sized_cmp c l1 l2 = sized_cmp c (flat l1) (flat l2).
Proof.
  intros. unfold pairs_sized_cmp, sized_cmp. rewrite !length_flat, pairs_lex_cmp_flat.
  destruct (Nat.eqb_spec (length l1) (length l2)), (Nat.eqb_spec (2 * length l1) (2 * length l2));
    try lia; try reflexivity.
  destruct (Nat.ltb_spec (length l1) (length l2)), (Nat.ltb_spec (2 * length l1) (2 * length l2));
    try lia; reflexivity.
Qed.
Lemma hash_pairs_flat : forall l s,
  fold_left (fun seed p => hash_combine (hash_combine seed (hash (fst p))) (hash (snd p))) l s =
  fold_left (fun seed a => hash_combine seed (hash a)) (flat l) s.
Proof. induction l; intros; cbn; [reflexivity|]. apply IHl. Qed.
Lemma forallb_flat : forall (f : expr -> bool) l,
  forallb (fun p => f (fst p) && f (snd p)) l = forallb f (flat l).
Proof. induction l; cbn; [reflexivity|]. unfold flat in IHl. rewrite IHl, andb_assoc. reflexivity. Qed.

(* extensionality of the helpers in the recursive call *)
Lemma list_eqb_ext : forall r1 r2 l1 l2,
  (forall x y, In x l1 -> In y l2 -> r1 x y = r2 x y) -> list_eqb r1 l1 l2 = list_eqb r2 l1 l2.
Proof.
  induction l1; destruct l2; cbn; intros H; try reflexivity.
  rewrite H by auto. rewrite IHl1 by auto. reflexivity.
Qed.
Lemma umap_find_ext : forall r1 r2 k d,
  (forall y, In y (map fst d) -> r1 y k = r2 y k) -> umap_find r1 k d = umap_find r2 k d.
Proof.
  induction d as [|[k' v] d IH]; cbn; intros H; [reflexivity|].
  rewrite H by auto. rewrite IH by auto. reflexivity.
Qed.
Lemma forallb_ext_In : forall {A} (f g : A -> bool) l,
  (forall x, In x l -> f x = g x) -> forallb f l = forallb g l.
Proof. induction l; cbn; intros H; [reflexivity|]. rewrite H by auto. rewrite IHl by auto. reflexivity. Qed.
Lemma umap_eqb_ext : forall r1 r2 d1 d2,
  (forall x y, In x (map fst d1) -> In y (map fst d2) -> r1 y x = r2 y x) ->
  umap_eqb r1 d1 d2 = umap_eqb r2 d1 d2.
Proof.
  intros. unfold umap_eqb. f_equal. apply forallb_ext_In.
  intros p Hp. rewrite (umap_find_ext r1 r2); [reflexivity|].
  intros y Hy. apply H; [apply in_map; assumption | assumption].
Qed.
Lemma lex_cmp_ext : forall c1 c2 l1 l2,
  (forall x y, In x l1 -> In y l2 -> c1 x y = c2 x y) -> lex_cmp c1 l1 l2 = lex_cmp c2 l1 l2.
Proof.
  induction l1; destruct l2; cbn; intros H; try reflexivity.
  rewrite H by auto. rewrite IHl1 by auto. reflexivity.
Qed.
Lemma sized_cmp_ext : forall c1 c2 l1 l2,
  (forall x y, In x l1 -> In y l2 -> c1 x y = c2 x y) -> sized_cmp c1 l1 l2 = sized_cmp c2 l1 l2.
Proof. intros. unfold sized_cmp. rewrite (lex_cmp_ext c1 c2) by assumption. reflexivity. Qed.
Lemma numpairs_lex_cmp_ext : forall c1 c2 l1 l2,
  (forall x y, In x (map fst l1) -> In y (map fst l2) -> c1 x y = c2 x y) ->
  numpairs_lex_cmp c1 l1 l2 = numpairs_lex_cmp c2 l1 l2.
Proof.
  induction l1 as [|[k1 v1] l1 IH]; destruct l2 as [|[k2 v2] l2]; cbn; intros H; try reflexivity.
  rewrite H by auto. rewrite IH by auto. reflexivity.
Qed.
Lemma numpairs_sized_cmp_ext : forall c1 c2 l1 l2,
  (forall x y, In x (map fst l1) -> In y (map fst l2) -> c1 x y = c2 x y) ->
  numpairs_sized_cmp c1 l1 l2 = numpairs_sized_cmp c2 l1 l2.
Proof. intros. unfold numpairs_sized_cmp. rewrite (numpairs_lex_cmp_ext c1 c2) by assumption. reflexivity. Qed.

Lemma map_insert_in : forall e c k v m p, In p (map_insert e c k v m) -> p = (k, v) \/ In p m.
Proof.
  induction m as [|[k' v'] m IH]; cbn; intros p H.
  - destruct H; [left; congruence | contradiction].
  - destruct (keyless e c k' k).
    + destruct H as [H|H]; [right; left; exact H|]. apply IH in H. tauto.
    + destruct (keyless e c k k'); [destruct H; [left; congruence | right; exact H] | right; exact H].
Qed.
Lemma map_of_umap_in_gen : forall e c d m p,
  In p (fold_left (fun m p => map_insert e c (fst p) (snd p) m) d m) -> In p m \/ In p d.
Proof.
  induction d as [|[k v] d IH]; cbn; intros m p H; [tauto|].
  apply IH in H. destruct H as [H|H]; [|tauto].
  apply map_insert_in in H. destruct H; [right; left; congruence | tauto].
Qed.
Lemma map_of_umap_in : forall e c d p, In p (map_of_umap e c d) -> In p d.
Proof. intros. apply map_of_umap_in_gen in H. cbn in H. tauto. Qed.
Lemma map_of_umap_keys : forall e c d x, In x (map fst (map_of_umap e c d)) -> In x (map fst d).
Proof.
  intros. apply in_map_iff in H. destruct H as [p [<- H]]. apply in_map. eapply map_of_umap_in; eassumption.
Qed.

(* [map_insert] only compares keys at distinct positions of the dictionary: it is enough that
   the two pairs of functions agree on pairs of keys of bounded total size *)
Definition ksize (d : list (expr * number)) : nat :=
  fold_right (fun p acc => size (fst p) + 1 + acc)%nat 0%nat d.

Lemma map_insert_ksize : forall e c k v m,
  (ksize (map_insert e c k v m) <= ksize m + size k + 1)%nat.
Proof.
  unfold ksize. induction m as [|[k' v'] m IH]; cbn [map_insert fold_right fst]; [lia|].
  destruct (keyless e c k' k); [cbn [fold_right fst]; lia|].
  destruct (keyless e c k k'); cbn [fold_right fst]; lia.
Qed.
Lemma map_insert_ext : forall B e1 c1 e2 c2 k v m,
  (forall x y, (size x + size y + 2 <= B)%nat -> e1 x y = e2 x y /\ c1 x y = c2 x y) ->
  (ksize m + size k + 1 <= B)%nat ->
  map_insert e1 c1 k v m = map_insert e2 c2 k v m.
Proof.
  intros B e1 c1 e2 c2 k v m H. unfold ksize.
  induction m as [|[k' v'] m IH]; cbn [map_insert fold_right fst]; intros Hb; [reflexivity|].
  assert (K1 : keyless e1 c1 k' k = keyless e2 c2 k' k).
  { unfold keyless. destruct (H k' k) as [-> ->]; [lia|reflexivity]. }
  assert (K2 : keyless e1 c1 k k' = keyless e2 c2 k k').
  { unfold keyless. destruct (H k k') as [-> ->]; [lia|reflexivity]. }
  rewrite K1, K2, IH by lia. reflexivity.
Qed.
Lemma map_of_umap_ext : forall e1 c1 e2 c2 d,
  (forall x y, (size x + size y + 2 <= ksize d)%nat -> e1 x y = e2 x y /\ c1 x y = c2 x y) ->
  map_of_umap e1 c1 d = map_of_umap e2 c2 d.
Proof.
  intros e1 c1 e2 c2 d H. unfold map_of_umap.
  assert (G : forall d' m, (ksize m + ksize d' <= ksize d)%nat ->
    fold_left (fun m p => map_insert e1 c1 (fst p) (snd p) m) d' m =
    fold_left (fun m p => map_insert e2 c2 (fst p) (snd p) m) d' m).
  { induction d' as [|[k v] d' IH]; intros m Hb; [reflexivity|].
    cbn [fold_left fst snd].
    assert (Hk : (ksize ((k, v) :: d') = size k + 1 + ksize d')%nat) by reflexivity.
    rewrite <- (map_insert_ext (ksize d) e1 c1 e2 c2 k v m) by (auto; lia).
    apply IH. pose proof (map_insert_ksize e1 c1 k v m). lia. }
  apply G. cbn. lia.
Qed.

(* the dictionary part of Add's comparison uses its functions only on pairs of keys *)
Lemma add_dict_cmp_ext : forall e1 c1 e2 c2 d1 d2,
  (forall x y, (size x + size y + 2 <= ksize d1 + ksize d2)%nat -> e1 x y = e2 x y /\ c1 x y = c2 x y) ->
  numpairs_sized_cmp c1 (map_of_umap e1 c1 d1) (map_of_umap e1 c1 d2) =
  numpairs_sized_cmp c2 (map_of_umap e2 c2 d1) (map_of_umap e2 c2 d2).
Proof.
  intros e1 c1 e2 c2 d1 d2 H.
  rewrite (map_of_umap_ext e1 c1 e2 c2 d1), (map_of_umap_ext e1 c1 e2 c2 d2) by (intros; apply H; lia).
  apply numpairs_sized_cmp_ext. intros x y Hx Hy.
  apply map_of_umap_keys, in_size_keys in Hx. apply map_of_umap_keys, in_size_keys in Hy.
  apply H. unfold ksize. lia.
Qed.

Lemma eqb_fuel : forall f1 f2 a b,
  (size a + size b <= f1)%nat -> (size a + size b <= f2)%nat -> eqb f1 a b = eqb f2 a b.
Proof.
  induction f1; intros f2 a b H1 H2; [pose proof (size_pos a); lia|].
  destruct f2; [pose proof (size_pos a); lia|].
  (* in each class the two sides differ only in the fuel of the recursive calls, all of which are on
     children of a and b: directly, through [list_eqb] or through [umap_eqb] *)
  destruct a; destruct b; cbn [eqb]; try reflexivity; rewrite ?pairs_eqb_flat;
  repeat match goal with
  | |- (_ && _)%bool = (_ && _)%bool => apply (f_equal2 andb)
  | |- eqb _ ?a ?b = eqb _ ?a ?b => apply IHf1; szb
  | |- list_eqb _ _ _ = list_eqb _ _ _ => apply list_eqb_ext; intros; apply IHf1; szb
  | |- umap_eqb _ _ _ = umap_eqb _ _ _ => apply umap_eqb_ext; intros; apply IHf1; szb
  | |- ?x = ?x => reflexivity
  end.
Qed.

Lemma eqb_big : forall f a b, (size a + size b <= f)%nat -> eqb f a b = expr_eqb a b.
Proof. intros. unfold expr_eqb. apply eqb_fuel; lia. Qed.

Lemma cmp_fuel : forall f1 f2 a b,
  (size a + size b <= f1)%nat -> (size a + size b <= f2)%nat -> cmp f1 a b = cmp f2 a b.
Proof.
  induction f1; intros f2 a b H1 H2; [pose proof (size_pos a); lia|].
  destruct f2; [pose proof (size_pos a); lia|].
  cbn [cmp]. destruct (negb (type_code a =? type_code b)%N); [reflexivity|].
  destruct a; destruct b; try reflexivity; rewrite ?pairs_sized_cmp_flat; cbn [size] in H1, H2;
    try (rewrite (IHf1 f2) by szb);
    try (rewrite (IHf1 f2 a2 b2) by szb);
    try (rewrite (IHf1 f2 a3 b4) by szb);
    try (rewrite (sized_cmp_ext (cmp f1) (cmp f2)) by (intros; apply IHf1; szb));
    try reflexivity.
  - (* Add *)
    fold (ksize d) in H1, H2. fold (ksize d0) in H1, H2.
    set (E := eqb (size (EAdd coef d) + size (EAdd coef0 d0))).
    rewrite (add_dict_cmp_ext E (cmp f1) E (cmp f2) d d0); [reflexivity|].
    intros x y Hb. split; [reflexivity | apply IHf1; lia].
Qed.

Lemma cmp_big : forall f a b, (size a + size b <= f)%nat -> cmp f a b = expr_cmp a b.
Proof. intros. unfold expr_cmp. apply cmp_fuel; lia. Qed.

Definition eqb_body (a b : expr) : bool :=
  match a, b with
  | ENum x, ENum y => num_eqb x y
  | ESym x, ESym y => bytes_eqb x y
  | EDummy x i, EDummy y j => bytes_eqb x y && (i =? j)%N
  | EConst x, EConst y => bytes_eqb x y
  | EAdd c1 d1, EAdd c2 d2 => num_eqb c1 c2 && umap_eqb expr_eqb d1 d2
  | EMul c1 d1, EMul c2 d2 => num_eqb c1 c2 && list_eqb expr_eqb (flat d1) (flat d2)
  | EPow b1 e1, EPow b2 e2 => expr_eqb b1 b2 && expr_eqb e1 e2
  | EF1 c1 a1, EF1 c2 a2 => (c1 =? c2)%N && expr_eqb a1 a2
  | EF2 c1 a1 b1, EF2 c2 a2 b2 => (c1 =? c2)%N && expr_eqb a1 a2 && expr_eqb b1 b2
  | EFN c1 l1, EFN c2 l2 => (c1 =? c2)%N && list_eqb expr_eqb l1 l2
  | EFunSym n1 l1, EFunSym n2 l2 => bytes_eqb n1 n2 && list_eqb expr_eqb l1 l2
  | ELex c1 a1 b1, ELex c2 a2 b2 => (c1 =? c2)%N && expr_eqb a1 a2 && expr_eqb b1 b2
  | EDeriv a1 l1, EDeriv a2 l2 => expr_eqb a1 a2 && list_eqb expr_eqb l1 l2
  | ESubs a1 d1, ESubs a2 d2 => expr_eqb a1 a2 && list_eqb expr_eqb (flat d1) (flat d2)
  | EPw l1, EPw l2 => list_eqb expr_eqb (flat l1) (flat l2)
  | EBool x, EBool y => Bool.eqb x y
  | EInterval s1 e1 l1 r1, EInterval s2 e2 l2 r2 =>
      Bool.eqb l1 l2 && Bool.eqb r1 r2 && expr_eqb s1 s2 && expr_eqb e1 e2
  | EAtom c1, EAtom c2 => (c1 =? c2)%N
  | _, _ => false
  end.

Lemma expr_eqb_S : forall a b, expr_eqb a b = eqb (S (size a + size b)) a b.
Proof. intros. symmetry. apply eqb_big. lia. Qed.

Lemma expr_eqb_unfold : forall a b, expr_eqb a b = eqb_body a b.
Proof.
  intros. rewrite expr_eqb_S.
  destruct a; destruct b; cbn [eqb eqb_body]; try reflexivity; rewrite ?pairs_eqb_flat;
  repeat match goal with
  | |- (_ && _)%bool = (_ && _)%bool => apply (f_equal2 andb)
  | |- eqb _ ?a ?b = expr_eqb ?a ?b => apply eqb_big; szb
  | |- list_eqb _ _ _ = list_eqb _ _ _ => apply list_eqb_ext; intros; apply eqb_big; szb
  | |- umap_eqb _ _ _ = umap_eqb _ _ _ => apply umap_eqb_ext; intros; apply eqb_big; szb
  | |- ?x = ?x => reflexivity
  end.
Qed.

Lemma eqb_EMul : forall c1 d1 c2 d2,
  expr_eqb (EMul c1 d1) (EMul c2 d2) = num_eqb c1 c2 && list_eqb expr_eqb (flat d1) (flat d2).
Proof. intros. rewrite expr_eqb_unfold. reflexivity. Qed.
Lemma eqb_EPow : forall b1 e1 b2 e2, expr_eqb (EPow b1 e1) (EPow b2 e2) = expr_eqb b1 b2 && expr_eqb e1 e2.
Proof. intros. rewrite expr_eqb_unfold. reflexivity. Qed.
Lemma eqb_EAdd : forall c1 d1 c2 d2,
  expr_eqb (EAdd c1 d1) (EAdd c2 d2) = num_eqb c1 c2 && umap_eqb expr_eqb d1 d2.
Proof. intros. rewrite expr_eqb_unfold. reflexivity. Qed.
Lemma eqb_ENum : forall a b, expr_eqb (ENum a) (ENum b) = num_eqb a b.
Proof. intros. rewrite expr_eqb_unfold. reflexivity. Qed.

Lemma expr_eqb_kind : forall a b, expr_eqb a b = true -> ctor_kind a = ctor_kind b.
Proof.
  intros a b. rewrite expr_eqb_unfold.
  destruct a; destruct b; cbn [eqb_body ctor_kind]; intros H; try reflexivity; discriminate.
Qed.

Definition cmp_same (a b : expr) : Z :=
  match a, b with
  | ENum x, ENum y => num_cmp_same x y
  | ESym x, ESym y => bytes_cmp x y
  | EDummy x i, EDummy y j => if bytes_eqb x y then Ncmp i j else bytes_cmp x y
  | EConst x, EConst y => bytes_cmp x y
  | EAdd c1 d1, EAdd c2 d2 =>
      if negb (length d1 =? length d2)%nat then
        (if (length d1 <? length d2)%nat then -1 else 1)
      else
        let t := num_cmp c1 c2 in
        if negb (t =? 0) then t
        else numpairs_sized_cmp expr_cmp
               (map_of_umap expr_eqb expr_cmp d1) (map_of_umap expr_eqb expr_cmp d2)
  | EMul c1 d1, EMul c2 d2 =>
      if negb (length d1 =? length d2)%nat then
        (if (length d1 <? length d2)%nat then -1 else 1)
      else
        let t := num_cmp c1 c2 in
        if negb (t =? 0) then t else sized_cmp expr_cmp (flat d1) (flat d2)
  | EPow b1 e1, EPow b2 e2 =>
      let t := expr_cmp b1 b2 in if (t =? 0) then expr_cmp e1 e2 else t
  | EF1 _ a1, EF1 _ a2 => expr_cmp a1 a2
  | EF2 _ a1 b1, EF2 _ a2 b2 =>
      if negb (expr_eqb a1 a2) then expr_cmp a1 a2 else expr_cmp b1 b2
  | EFN _ l1, EFN _ l2 => sized_cmp expr_cmp l1 l2
  | EFunSym n1 l1, EFunSym n2 l2 =>
      if bytes_eqb n1 n2 then sized_cmp expr_cmp l1 l2
      else if (bytes_cmp n1 n2 =? -1) then -1 else 1
  | ELex _ a1 b1, ELex _ a2 b2 =>
      let t := expr_cmp a1 a2 in if (t =? 0) then expr_cmp b1 b2 else t
  | EDeriv a1 l1, EDeriv a2 l2 =>
      let t := expr_cmp a1 a2 in if (t =? 0) then sized_cmp expr_cmp l1 l2 else t
  | ESubs a1 d1, ESubs a2 d2 =>
      let t := expr_cmp a1 a2 in if (t =? 0) then sized_cmp expr_cmp (flat d1) (flat d2) else t
  | EPw l1, EPw l2 => sized_cmp expr_cmp (flat l1) (flat l2)
  | EBool x, EBool y =>
      if x then (if y then 0 else 1) else (if y then -1 else 0)
  | EInterval s1 e1 lo1 ro1, EInterval s2 e2 lo2 ro2 =>
      if lo1 && negb lo2 then -1
      else if negb lo1 && lo2 then 1
      else if ro1 && negb ro2 then 1
      else if negb ro1 && ro2 then -1
      else let t := expr_cmp s1 s2 in if (t =? 0) then expr_cmp e1 e2 else t
  | _, _ => 0
  end.

Definition cmp_body (a b : expr) : Z :=
  if negb (type_code a =? type_code b)%N then
    (if (type_code a <? type_code b)%N then -1 else 1)
  else cmp_same a b.

Lemma expr_cmp_S : forall a b, expr_cmp a b = cmp (S (size a + size b)) a b.
Proof. intros. symmetry. apply cmp_big. lia. Qed.

Lemma expr_cmp_unfold : forall a b, expr_cmp a b = cmp_body a b.
Proof.
  intros. rewrite expr_cmp_S. unfold cmp_body, cmp_same. cbn [cmp].
  destruct (negb (type_code a =? type_code b)%N); [reflexivity|].
  destruct a; destruct b; try reflexivity; rewrite ?pairs_sized_cmp_flat;
    repeat match goal with
    | |- context[cmp _ ?x ?y] => rewrite (cmp_big _ x y) by szb
    | |- context[eqb _ ?x ?y] => rewrite (eqb_big _ x y) by szb
    | |- context[sized_cmp (cmp ?f) ?l1 ?l2] =>
        rewrite (sized_cmp_ext (cmp f) expr_cmp l1 l2) by (intros; apply cmp_big; szb)
    end; try reflexivity.
  (* Add *)
  set (F := (size (EAdd coef d) + size (EAdd coef0 d0))%nat).
  assert (HF : (F = S (ksize d) + S (ksize d0))%nat) by reflexivity.
  rewrite (add_dict_cmp_ext (eqb F) (cmp F) expr_eqb expr_cmp d d0); [reflexivity|].
  intros x y Hb. split; [apply eqb_big | apply cmp_big]; lia.
Qed.

Lemma expr_cmp_kind_diff : forall a b, ctor_kind a <> ctor_kind b ->
  expr_cmp a b = if negb (type_code a =? type_code b)%N then
                   (if (type_code a <? type_code b)%N then -1 else 1) else 0.
Proof.
  intros a b H. rewrite expr_cmp_unfold. unfold cmp_body, cmp_same.
  destruct (negb (type_code a =? type_code b)%N); [reflexivity|].
  destruct a; destruct b; try reflexivity; exfalso; apply H; reflexivity.
Qed.

(* type codes first, then the comparison within the class *)
Lemma expr_cmp_lex : forall a b,
  expr_cmp a b = lexZ (Ncmp (type_code a) (type_code b)) (cmp_same a b).
Proof.
  intros. rewrite expr_cmp_unfold. unfold cmp_body. rewrite if_negb.
  apply ite_lex; [apply Ncmp_range | apply Ncmp_zero | apply Ncmp_lt].
Qed.

(* equal type codes on well-formed expressions: same constructor *)
Lemma wf_same_kind : forall a b, wf a = true -> wf b = true -> type_code a = type_code b ->
  ctor_kind a = ctor_kind b.
Proof.
  unfold wf. intros a b Wa Wb. apply andb_prop in Wa. apply andb_prop in Wb.
  apply node_ok_same_kind; apply codes_ok_node; tauto.
Qed.

Definition children (e : expr) : list expr :=
  match e with
  | EAdd _ d => map fst d
  | EMul _ d => flat d
  | EPow b x => [b; x]
  | EF1 _ a => [a]
  | EF2 _ a b => [a; b]
  | EFN _ l => l
  | EFunSym _ l => l
  | ELex _ a b => [a; b]
  | EDeriv a l => a :: l
  | ESubs a d => a :: flat d
  | EPw l => flat l
  | EInterval s x _ _ => [s; x]
  | _ => []
  end.

Lemma children_size : forall e x, In x (children e) -> (size x < size e)%nat.
Proof.
  destruct e; cbn [children In]; intros x H; try contradiction;
    repeat match goal with H : _ \/ _ |- _ => destruct H | H : False |- _ => contradiction end;
    subst; try szb.
Qed.

Lemma children_codes_ok : forall e x, codes_ok e = true -> In x (children e) -> codes_ok x = true.
Proof.
  destruct e; cbn [children In codes_ok]; intros x W H; try contradiction;
    rewrite ?forallb_flat in W;
    repeat match goal with
    | H : (_ && _)%bool = true |- _ => apply andb_prop in H; destruct H
    | H : _ \/ _ |- _ => destruct H
    | H : False |- _ => contradiction
    end; subst; try assumption;
    try (eapply forallb_forall in H; [exact H | eassumption]).
  apply in_map_iff in H. destruct H as [p [<- Hp]].
  eapply forallb_forall in H1; [exact H1 | exact Hp].
Qed.

Lemma children_wf_struct : forall e x, wf_struct e = true -> In x (children e) -> wf_struct x = true.
Proof.
  destruct e; cbn [children In wf_struct]; intros x W H; try contradiction;
    rewrite ?forallb_flat in W;
    repeat match goal with
    | H : (_ && _)%bool = true |- _ => apply andb_prop in H; destruct H
    | H : _ \/ _ |- _ => destruct H
    | H : False |- _ => contradiction
    end; subst; try assumption;
    try (eapply forallb_forall in H; [exact H | eassumption]).
  apply in_map_iff in H. destruct H as [p [<- Hp]].
  eapply forallb_forall in H2; [|exact Hp]. apply andb_prop in H2. apply H2.
Qed.

Lemma children_wf : forall e x, wf e = true -> In x (children e) -> wf x = true.
Proof.
  unfold wf. intros e x W H. apply andb_prop in W. destruct W as [W1 W2].
  rewrite (children_wf_struct e x W1 H), (children_codes_ok e x W2 H). reflexivity.
Qed.

(* what [wf] says about a sum *)
Lemma wf_add : forall c d, wf (EAdd c d) = true ->
  num_wf c = true /\ (forall p, In p d -> wf (fst p) = true /\ num_wf (snd p) = true) /\
  pairwise_ne (map fst d) = true.
Proof.
  intros c d W. pose proof (fun x => children_wf _ x W) as CW. unfold wf in W. cbn [wf_struct] in W.
  repeat match goal with H : (_ && _)%bool = true |- _ => apply andb_prop in H; destruct H end.
  repeat split; try assumption.
  - apply CW. cbn [children]. apply in_map. assumption.
  - eapply forallb_forall in H2; [|eassumption]. apply andb_prop in H2. apply H2.
Qed.
Lemma wf_num : forall n, wf (ENum n) = num_wf n.
Proof. intros. unfold wf. rewrite codes_ok_num. cbn [wf_struct]. apply andb_true_r. Qed.
Lemma wf_coef : forall e, wf e = true ->
  match e with EAdd c _ | EMul c _ => num_wf c = true | ENum n => num_wf n = true
             | EDummy _ i => (i <? W64)%N = true | _ => True end.
Proof.
  intros e W. unfold wf in W. apply andb_prop in W. destruct W as [W _].
  destruct e; try exact I; cbn [wf_struct] in W;
    repeat match goal with H : (_ && _)%bool = true |- _ => apply andb_prop in H; destruct H end;
    assumption.
Qed.
