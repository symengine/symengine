(* Fuel monotonicity of [arith], of the wrappers and of the API, from that of [step] (ArithFuel.v). *)
From SE Require Export Expr.ArithFuel.
Local Open Scope Z_scope.

Lemma le_trans : forall A (x y z : res A), le_res x y -> le_res y z -> le_res x z.
Proof. intros A x y z [-> | ->] H; [left; reflexivity | exact H]. Qed.

Lemma arith_mono_S : forall f c, le_res (arith f c) (arith (S f) c).
Proof.
  induction f as [|f IH]; intros c; [left; reflexivity|].
  change (le_res (step (arith f) c) (step (arith (S f)) c)). apply step_mono. exact IH.
Qed.

Lemma arith_mono : forall f f' c, (f <= f')%nat -> le_res (arith f c) (arith f' c).
Proof.
  intros f f' c L. induction L as [|f' L IH]; [apply le_refl|].
  eapply le_trans; [exact IH | apply arith_mono_S].
Qed.

(* the statement used by the properties: a result (value or exception) obtained with some fuel
   is the result for every larger fuel *)
Theorem arith_fuel_mono : forall f f' c r, (f <= f')%nat -> arith f c = r -> r <> ErrFuel -> arith f' c = r.
Proof.
  intros f f' c r L E NF. destruct (arith_mono f f' c L) as [Q|Q]; [congruence|]. congruence.
Qed.

Lemma e_mul_mono : forall f f' a b, (f <= f')%nat -> le_res (e_mul f a b) (e_mul f' a b).
Proof. intros. unfold e_mul. apply rE_mono. intros c. now apply arith_mono. Qed.
Lemma e_pow_mono : forall f f' a b, (f <= f')%nat -> le_res (e_pow f a b) (e_pow f' a b).
Proof. intros. unfold e_pow. apply rE_mono. intros c. now apply arith_mono. Qed.

Lemma le_ok : forall A (x y : res A) r, le_res x y -> x = Ok r -> y = Ok r.
Proof. intros A x y r [-> | ->] E; [discriminate | exact E]. Qed.

(* two values obtained with whatever fuels are the same *)
Lemma fuel_det : forall A (F : nat -> res A), (forall f f', (f <= f')%nat -> le_res (F f) (F f')) ->
  forall f f' r r', F f = Ok r -> F f' = Ok r' -> r = r'.
Proof.
  intros A F M f f' r r' E E'. destruct (Nat.le_ge_cases f f') as [L|L].
  - pose proof (le_ok _ _ _ r (M f f' L) E). congruence.
  - pose proof (le_ok _ _ _ r' (M f' f L) E'). congruence.
Qed.
Lemma e_mul_det : forall f f' a b r r', e_mul f a b = Ok r -> e_mul f' a b = Ok r' -> r = r'.
Proof. intros f f' a b. apply (fuel_det _ (fun f => e_mul f a b)). intros. now apply e_mul_mono. Qed.
Lemma e_pow_det : forall f f' a b r r', e_pow f a b = Ok r -> e_pow f' a b = Ok r' -> r = r'.
Proof. intros f f' a b. apply (fuel_det _ (fun f => e_pow f a b)). intros. now apply e_pow_mono. Qed.

Theorem api_fuel_mono : forall f f' op args, (f <= f')%nat -> le_res (api f op args) (api f' op args).
Proof.
  intros f f' op args L.
  assert (M : forall a b, le_res (e_mul f a b) (e_mul f' a b)) by (intros; now apply e_mul_mono).
  assert (P : forall a b, le_res (e_pow f a b) (e_pow f' a b)) by (intros; now apply e_pow_mono).
  assert (D : forall a b, le_res (e_div f a b) (e_div f' a b)).
  { intros a b. unfold e_div. destruct (is_number_and_zero b); [apply le_refl|].
    apply bind_mono; [apply P | intros; apply M]. }
  unfold api. destruct op;
    [ destruct args as [|a [|b [|c l]]]; try apply le_refl;
      unfold e_sub, e_neg, e_sqrt, e_cbrt; auto using bind_mono, le_refl ..
    | apply le_refl | ].
  unfold e_mulv. apply bind_mono; [|intros; apply le_refl]. apply fold_res_mono. intros st x.
  destruct x; try (apply mul_operand_mono; intros; now apply arith_mono).
  apply bind_mono; [apply le_refl | intros; apply datn_loop_mono; intros; now apply arith_mono].
Qed.
