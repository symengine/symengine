(* Lexicographic comparison of lists: range, antisymmetry, zero iff pointwise zero, full
   transitivity -- once, for lists over any type compared element by element with [lexZ];
   the model's comparisons of element lists and of (key, coefficient) lists are instances. *)
From SE Require Export Expr.HashProofs Expr.Sorting.
From Coq Require Import Lia.
Local Open Scope Z_scope.

(* comparison of two lengths *)
Definition natcmp (n m : nat) : Z := Zcmp (Z.of_nat n) (Z.of_nat m).
Lemma natcmp_range : forall n m, in_range (natcmp n m).
Proof. intros. apply Zcmp_range. Qed.
Lemma natcmp_antisym : forall n m, natcmp m n = - natcmp n m.
Proof. intros. apply Zcmp_antisym. Qed.
Lemma natcmp_zero : forall n m, natcmp n m = 0 <-> n = m.
Proof. intros. unfold natcmp. rewrite Zcmp_eq. lia. Qed.
Lemma natcmp_FTz : forall n m k, FTz (natcmp n m) (natcmp m k) (natcmp n k).
Proof. intros. apply (Zcmp_FT (Z.of_nat n) (Z.of_nat m) (Z.of_nat k)). Qed.
Lemma natcmp_ite : forall n m u,
  (if (n =? m)%nat then u else if (n <? m)%nat then -1 else 1) = lexZ (natcmp n m) u.
Proof.
  intros. apply ite_lex; [apply natcmp_range | rewrite natcmp_zero, Nat.eqb_eq; reflexivity |].
  unfold natcmp. rewrite Zcmp_lt, Nat.ltb_lt. lia.
Qed.
Lemma natcmp_lex : forall n m u,
  (if negb (n =? m)%nat then (if (n <? m)%nat then -1 else 1) else u) = lexZ (natcmp n m) u.
Proof. intros. rewrite if_negb. apply natcmp_ite. Qed.

Section Lex.
  Context {A : Type}.
  Variable c : A -> A -> Z.

  Fixpoint lexl (l1 l2 : list A) : Z :=
    match l1, l2 with
    | x :: r1, y :: r2 => lexZ (c x y) (lexl r1 r2)
    | _, _ => 0
    end.
  (* shorter first, then element by element *)
  Definition sizedl (l1 l2 : list A) : Z := lexZ (natcmp (length l1) (length l2)) (lexl l1 l2).

  Lemma lexl_range : forall l1 l2, (forall x y, In x l1 -> In y l2 -> in_range (c x y)) ->
    in_range (lexl l1 l2).
  Proof.
    induction l1; destruct l2 as [|e0 l2]; cbn [lexl]; intros H; try (right; left; reflexivity).
    apply lexZ_range; [apply H; left; reflexivity | apply IHl1; intros; apply H; right; assumption].
  Qed.
  Lemma sizedl_range : forall l1 l2, (forall x y, In x l1 -> In y l2 -> in_range (c x y)) ->
    in_range (sizedl l1 l2).
  Proof. intros. apply lexZ_range; [apply natcmp_range | apply lexl_range; assumption]. Qed.

  Lemma lexl_antisym : forall l1 l2, (forall x y, In x l1 -> In y l2 -> c x y = - c y x) ->
    lexl l1 l2 = - lexl l2 l1.
  Proof.
    induction l1; destruct l2 as [|e0 l2]; cbn [lexl]; intros H; try reflexivity.
    apply lexZ_antisym; [apply H; left; reflexivity | apply IHl1; intros; apply H; right; assumption].
  Qed.
  Lemma sizedl_antisym : forall l1 l2, (forall x y, In x l1 -> In y l2 -> c x y = - c y x) ->
    sizedl l1 l2 = - sizedl l2 l1.
  Proof. intros. apply lexZ_antisym; [apply natcmp_antisym | apply lexl_antisym; assumption]. Qed.

  (* zero exactly when the lists correspond element by element, under any relation [R] that
     holds of two elements exactly when they compare as 0 *)
  Section Zero.
    Variable R : A -> A -> Prop.
    Lemma lexl_zero : forall l1 l2, length l1 = length l2 ->
      (forall x y, In x l1 -> In y l2 -> (c x y = 0 <-> R x y)) ->
      (lexl l1 l2 = 0 <-> Forall2 R l1 l2).
    Proof.
      induction l1; destruct l2 as [|e0 l2]; cbn [lexl length]; intros L H; try discriminate L.
      - split; [constructor | reflexivity].
      - rewrite lexZ_zero, (H a e0), IHl1; [| lia | intros; apply H; right; assumption | left; reflexivity
                                             | left; reflexivity].
        split; [intros [? ?]; constructor; assumption | intros F; inversion F; auto].
    Qed.
    Lemma sizedl_zero : forall l1 l2,
      (forall x y, In x l1 -> In y l2 -> (c x y = 0 <-> R x y)) ->
      (sizedl l1 l2 = 0 <-> Forall2 R l1 l2).
    Proof.
      intros l1 l2 H. unfold sizedl. rewrite lexZ_zero, natcmp_zero. split.
      - intros [L E]. apply (lexl_zero l1 l2 L H). exact E.
      - intros F. pose proof (Forall2_length' _ _ _ F) as L. split; [exact L|].
        apply (lexl_zero l1 l2 L H). exact F.
    Qed.
  End Zero.

  Lemma lexl_FT : forall l1 l2 l3, length l1 = length l2 -> length l2 = length l3 ->
    (forall x y z, In x l1 -> In y l2 -> In z l3 -> FTz (c x y) (c y z) (c x z)) ->
    FTz (lexl l1 l2) (lexl l2 l3) (lexl l1 l3).
  Proof.
    induction l1; destruct l2 as [|e0 l2]; destruct l3 as [|e1 l3]; cbn [length lexl]; intros L1 L2 H;
      try discriminate L1; try discriminate L2.
    - unfold FTz. tauto.
    - apply FTz_lex; [apply H; left; reflexivity | intros _ _].
      apply IHl1; [lia | lia | intros; apply H; right; assumption].
  Qed.
  Lemma sizedl_FT : forall l1 l2 l3,
    (forall x y z, In x l1 -> In y l2 -> In z l3 -> FTz (c x y) (c y z) (c x z)) ->
    FTz (sizedl l1 l2) (sizedl l2 l3) (sizedl l1 l3).
  Proof.
    intros l1 l2 l3 H. apply FTz_lex; [apply natcmp_FTz|]. rewrite !natcmp_zero.
    intros L1 L2. apply lexl_FT; assumption.
  Qed.
End Lex.

Section Lists.
  Variable c : expr -> expr -> Z.

  Lemma lex_cmp_lexl : forall l1 l2, lex_cmp c l1 l2 = lexl c l1 l2.
  Proof. reflexivity. Qed.
  Lemma sized_cmp_sizedl : forall l1 l2, sized_cmp c l1 l2 = sizedl c l1 l2.
  Proof. intros. unfold sized_cmp. rewrite lex_cmp_lexl. apply natcmp_ite. Qed.

  Lemma lex_cmp_range_in : forall l1 l2, (forall x y, In x l1 -> In y l2 -> in_range (c x y)) ->
    in_range (lex_cmp c l1 l2).
  Proof. intros. rewrite lex_cmp_lexl. apply lexl_range. assumption. Qed.
  Lemma sized_cmp_range : forall l1 l2, (forall x y, In x l1 -> In y l2 -> in_range (c x y)) ->
    in_range (sized_cmp c l1 l2).
  Proof. intros. rewrite sized_cmp_sizedl. apply sizedl_range. assumption. Qed.
  Lemma sized_cmp_antisym : forall l1 l2,
    (forall x y, In x l1 -> In y l2 -> c x y = - c y x) -> sized_cmp c l1 l2 = - sized_cmp c l2 l1.
  Proof. intros. rewrite !sized_cmp_sizedl. apply sizedl_antisym. assumption. Qed.
  Lemma sized_cmp_FT : forall l1 l2 l3,
    (forall x y z, In x l1 -> In y l2 -> In z l3 -> FT c x y z) -> FT (sized_cmp c) l1 l2 l3.
  Proof. intros. unfold FT. rewrite !sized_cmp_sizedl. apply sizedl_FT. assumption. Qed.

  Variable e : expr -> expr -> bool.

  Lemma list_eqb_Forall2 : forall l1 l2,
    list_eqb e l1 l2 = true <-> Forall2 (fun x y => e x y = true) l1 l2.
  Proof.
    induction l1; destruct l2 as [|e0 l2]; cbn [list_eqb].
    - split; [constructor | reflexivity].
    - split; [discriminate | intros F; inversion F].
    - split; [discriminate | intros F; inversion F].
    - rewrite andb_true_iff, IHl1. split; [intros [? ?]; constructor; assumption | intros F; inversion F; auto].
  Qed.
  Lemma list_eqb_length : forall l1 l2, list_eqb e l1 l2 = true -> length l1 = length l2.
  Proof. intros l1 l2 H. apply list_eqb_Forall2 in H. eapply Forall2_length'; eassumption. Qed.

  Lemma sized_cmp_eq_iff : forall l1 l2,
    (forall x y, In x l1 -> In y l2 -> (c x y = 0 <-> e x y = true)) ->
    (sized_cmp c l1 l2 = 0 <-> list_eqb e l1 l2 = true).
  Proof. intros. rewrite sized_cmp_sizedl, list_eqb_Forall2. apply sizedl_zero. assumption. Qed.
End Lists.

Definition nwf (m : list (expr * number)) : Prop := forall p, In p m -> num_wf (snd p) = true.

Section NumPairs.
  Variable c : expr -> expr -> Z.

  Definition entry_cmp (p q : expr * number) : Z := lexZ (c (fst p) (fst q)) (num_cmp (snd p) (snd q)).

  Lemma numpairs_lex_cmp_lexl : forall l1 l2, numpairs_lex_cmp c l1 l2 = lexl entry_cmp l1 l2.
  Proof.
    induction l1 as [|[k1 v1] l1 IH]; destruct l2 as [|[k2 v2] l2]; cbn [numpairs_lex_cmp lexl];
      try reflexivity.
    rewrite IH. symmetry. apply lexZ_assoc.
  Qed.
  Lemma numpairs_sized_cmp_sizedl : forall l1 l2, numpairs_sized_cmp c l1 l2 = sizedl entry_cmp l1 l2.
  Proof. intros. unfold numpairs_sized_cmp. rewrite numpairs_lex_cmp_lexl. apply natcmp_ite. Qed.

  Lemma numpairs_sized_cmp_range : forall l1 l2,
    (forall p q, In p l1 -> In q l2 -> in_range (c (fst p) (fst q))) ->
    in_range (numpairs_sized_cmp c l1 l2).
  Proof.
    intros l1 l2 H. rewrite numpairs_sized_cmp_sizedl. apply sizedl_range. intros p q Hp Hq.
    apply lexZ_range; [apply H; assumption | apply num_cmp_range].
  Qed.

  Lemma numpairs_sized_cmp_antisym : forall l1 l2, nwf l1 -> nwf l2 ->
    (forall p q, In p l1 -> In q l2 -> c (fst p) (fst q) = - c (fst q) (fst p)) ->
    numpairs_sized_cmp c l1 l2 = - numpairs_sized_cmp c l2 l1.
  Proof.
    intros l1 l2 W1 W2 H. rewrite !numpairs_sized_cmp_sizedl. apply sizedl_antisym. intros p q Hp Hq.
    apply lexZ_antisym; [apply H; assumption | apply num_cmp_antisym; [apply W1 | apply W2]; assumption].
  Qed.

  Lemma numpairs_sized_cmp_FT : forall l1 l2 l3, nwf l1 -> nwf l2 -> nwf l3 ->
    (forall p q r, In p l1 -> In q l2 -> In r l3 -> FT c (fst p) (fst q) (fst r)) ->
    FT (numpairs_sized_cmp c) l1 l2 l3.
  Proof.
    intros l1 l2 l3 W1 W2 W3 H. unfold FT. rewrite !numpairs_sized_cmp_sizedl. apply sizedl_FT.
    intros p q r Hp Hq Hr. apply FTz_lex; [apply H; assumption | intros _ _].
    apply num_cmp_FT; [apply W1 | apply W2 | apply W3]; assumption.
  Qed.

  Variable e : expr -> expr -> bool.

  Definition entry_eq (p q : expr * number) : Prop :=
    e (fst p) (fst q) = true /\ num_eqb (snd p) (snd q) = true.

  Lemma numpairs_sized_cmp_eq_iff : forall l1 l2, nwf l1 -> nwf l2 ->
    (forall p q, In p l1 -> In q l2 -> (c (fst p) (fst q) = 0 <-> e (fst p) (fst q) = true)) ->
    (numpairs_sized_cmp c l1 l2 = 0 <-> Forall2 entry_eq l1 l2).
  Proof.
    intros l1 l2 W1 W2 H. rewrite numpairs_sized_cmp_sizedl. apply sizedl_zero. intros p q Hp Hq.
    unfold entry_cmp, entry_eq. rewrite lexZ_zero, (H p q Hp Hq), num_cmp_eq_iff; [reflexivity | apply W1 | apply W2]; assumption.
  Qed.
End NumPairs.
