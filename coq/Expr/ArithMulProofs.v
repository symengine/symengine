(* mul(a, b), Mul::dict_add_term_new, Mul::power_num, pow(a, integer) on the power-product fragment
   (ArithGuards.v: [mul_operand_ok]): what they compute, closure of the guard, canonical form (C03). *)
From SE Require Export Expr.ArithAddProofs Expr.ArithFuelMono.
From SE Require Import Num.NumSpec Num.NumQi Expr.CmpProofs.
From Coq Require Import QArith Lia Permutation Setoid Morphisms.
Local Open Scope Z_scope.

(* the scan performed by find / insert / erase on the std::map *)
Inductive mscan_res (t : expr) (d : mdict) : Prop :=
| MS_found : forall d1 k v d2, d = d1 ++ (k, v) :: d2 ->
    expr_keyless k t = false -> expr_keyless t k = false ->
    mlookup t d = Some (k, v) ->
    (forall s, mset t s d = d1 ++ (k, s) :: d2) -> merase t d = d1 ++ d2 -> mscan_res t d
| MS_absent : forall d1 d2, d = d1 ++ d2 -> mlookup t d = None ->
    (forall s, minsert t s d = d1 ++ (t, s) :: d2) ->
    (forall p, In p d1 -> expr_keyless (fst p) t = true) ->
    match d2 with [] => True | q :: _ => expr_keyless t (fst q) = true end -> mscan_res t d.

Lemma mscan : forall t d, mscan_res t d.
Proof.
  intros t. induction d as [|[k v] d IH].
  - apply (MS_absent t [] [] []); auto.
  - destruct (expr_keyless k t) eqn:A.
    + destruct IH as [d1 k0 v0 d2 -> B1 B2 L S E | d1 d2 -> L I O H].
      * apply (MS_found t _ ((k, v) :: d1) k0 v0 d2); cbn [app mlookup mset merase]; rewrite ?A; auto.
        -- intros s. now rewrite S.
        -- now rewrite E.
      * apply (MS_absent t _ ((k, v) :: d1) d2); cbn [app mlookup minsert]; rewrite ?A; auto.
        -- intros s. now rewrite I.
        -- intros p [<-|Hp]; auto.
    + destruct (expr_keyless t k) eqn:B.
      * apply (MS_absent t _ [] ((k, v) :: d)); cbn [app mlookup minsert]; rewrite ?A, ?B; auto.
      * apply (MS_found t _ [] k v d); cbn [app mlookup mset merase]; rewrite ?A, ?B; auto.
Qed.

(* incomparable well-formed keys are eq *)
Lemma incomparable_eq : forall k t, wf k = true -> wf t = true ->
  expr_keyless k t = false -> expr_keyless t k = false -> expr_eqb k t = true.
Proof.
  intros k t Wk Wt A B. destruct keyless_strict_weak_order as (_ & _ & H). apply (H k t Wk Wt). auto.
Qed.

Lemma atom_ok_inv : forall k, atom_ok k = true -> wf k = true /\ canonical k = true /\ is_atom k = true.
Proof. intros k H. unfold atom_ok in H. apply andb_prop in H. destruct H as [H A]. apply andb_prop in H. tauto. Qed.

Lemma qexp_ok_inv : forall n, qexp_ok n = true ->
  xok n = true /\ num_is_zero n = false /\ (exists z, n = NInt z) \/ xok n = true /\ num_is_zero n = false /\ (exists p q, n = NRat p q).
Proof.
  intros n H. unfold qexp_ok in H. apply andb_prop in H. destruct H as [H K]. apply andb_prop in H. destruct H as [X Z].
  apply negb_true_iff in Z. destruct n; try discriminate K; [left|right]; eauto 6.
Qed.
Lemma qexp_ok_xok : forall n, qexp_ok n = true -> xok n = true.
Proof. intros n H. unfold qexp_ok in H. apply andb_prop in H. destruct H as [H _]. apply andb_prop in H. apply H. Qed.
Lemma qexp_ok_nz : forall n, qexp_ok n = true -> num_is_zero n = false.
Proof. intros n H. unfold qexp_ok in H. apply andb_prop in H. destruct H as [H _]. apply andb_prop in H. destruct H as [_ H]. now apply negb_true_iff. Qed.

Lemma mentry_ok_inv : forall k v, mentry_ok (k, v) = true -> atom_ok k = true /\ exists n, v = ENum n /\ qexp_ok n = true.
Proof.
  intros k v H. unfold mentry_ok in H. cbn [fst snd] in H. apply andb_prop in H. destruct H as [A B].
  split; [exact A|]. destruct v; try discriminate B. eauto.
Qed.

Lemma mentries_cons_inv : forall k v d, mentries_ok ((k, v) :: d) = true ->
  exists n, v = ENum n /\ atom_ok k = true /\ qexp_ok n = true /\ mentries_ok d = true.
Proof.
  intros k v d H. cbn [mentries_ok forallb] in H. apply andb_prop in H. destruct H as [E D].
  destruct (mentry_ok_inv k v E) as (T & n & -> & Q). eauto.
Qed.

Lemma mentries_app : forall d1 d2, mentries_ok (d1 ++ d2) = mentries_ok d1 && mentries_ok d2.
Proof. intros. unfold mentries_ok. apply forallb_app. Qed.

(* sum of two Integer / Rational exponents is an Integer or a Rational *)
Lemma xadd_int_rat : forall a b, qexp_ok a = true -> qexp_ok b = true ->
  match xadd a b with NInt _ | NRat _ _ => True | _ => False end.
Proof.
  intros a b Ha Hb. pose proof (qexp_ok_xok _ Ha) as Xa. pose proof (qexp_ok_xok _ Hb) as Xb.
  pose proof (xadd_xok a b Xa Xb) as X. pose proof (xadd_val a b Xa Xb) as V.
  destruct (xadd a b) as [z|n d|rn rd imn imd| | | | ] eqn:E; try exact I; try discriminate X.
  exfalso. destruct (xok_cplx_low _ _ _ _ X) as (_ & _ & NZ). apply NZ.
  destruct V as [_ V2]. unfold qval in V2. cbn [valQi snd] in V2.
  unfold qexp_ok in Ha, Hb. apply andb_prop in Ha, Hb. destruct Ha as [_ Ka]. destruct Hb as [_ Kb].
  destruct a; try discriminate Ka; destruct b; try discriminate Kb; cbn [valQi qi_add fst snd] in V2;
    unfold Qeq in V2; cbn in V2; lia.
Qed.

(* Mul::dict_add_term_new on the fragment *)
Definition num_of (e : expr) : number := match e with ENum n => n | _ => NInt 0 end.

(* the dictionary after the factor p = (t, ENum q) is added *)
Definition dstep (d : mdict) (p : expr * expr) : mdict :=
  let q := num_of (snd p) in
  match mlookup (fst p) d with
  | None => minsert (fst p) (ENum q) d
  | Some (k, v) =>
      let s := xadd (num_of v) q in
      if num_is_zero s then merase (fst p) d else mset (fst p) (ENum s) d
  end.
Definition dmerge (d l : mdict) : mdict := fold_left dstep l d.

Lemma mlookup_in : forall t d k v, mlookup t d = Some (k, v) -> In (k, v) d.
Proof.
  intros t d k v H. destruct (mscan t d) as [d1 k0 v0 d2 -> _ _ L _ _ | d1 d2 -> L _].
  - rewrite L in H. injection H as <- <-. apply in_or_app. right. left. reflexivity.
  - rewrite L in H. discriminate.
Qed.

Lemma mentries_in : forall d k v, mentries_ok d = true -> In (k, v) d ->
  atom_ok k = true /\ exists n, v = ENum n /\ qexp_ok n = true.
Proof. intros d k v H Hp. unfold mentries_ok in H. rewrite forallb_forall in H. apply mentry_ok_inv. auto. Qed.

Lemma rat_not_zero : forall n d, xok (NRat n d) = true -> num_is_zero (NRat n d) = false.
Proof.
  intros n d X. destruct (xok_rat_low _ _ X) as [L D]. cbn [num_is_zero]. apply Z.eqb_neq. intros ->.
  unfold NumQ.qlow in L. cbn in L. destruct d; cbn in L; try lia.
Qed.

(* the branches of [step_datn] when the term and the key found are atoms *)
Lemma datn_absent_atom : forall rec coef d exp t, is_atom t = true ->
  datn_absent rec coef d exp t = Ok (coef, minsert t exp d).
Proof. intros rec coef d exp t A. destruct t; try discriminate A; reflexivity. Qed.

Lemma datn_found_atom : forall rec coef t dE s tl pk, is_atom t = true ->
  datn_found rec coef t dE (ENum s) tl pk =
  match s with NInt z => if z =? 0 then Ok (coef, dE) else pk | _ => tl end.
Proof. intros rec coef t dE s tl pk A. destruct t; try discriminate A; destruct s; reflexivity. Qed.

Lemma datn_pow_key_atom : forall rec coef dE k newv tl, is_atom k = true ->
  datn_pow_key rec coef dE k newv tl = tl.
Proof. intros rec coef dE k newv tl A. destruct k; try discriminate A; reflexivity. Qed.

Lemma datn_tail_atom : forall rec coef t d1 dE k n, is_atom k = true -> is_atom t = true ->
  num_is_zero n = false -> num_is_exact n = true ->
  datn_tail rec coef t d1 dE k (ENum n) = Ok (coef, d1).
Proof.
  intros rec coef t d1 dE k n Ak At Z X.
  assert (T : forall b : bool,
              match t with
              | ENum tn => if b || negb (num_is_exact tn)
                           then bind (coef_times_pow coef tn n) (fun c => Ok (c, dE)) else Ok (coef, d1)
              | _ => Ok (coef, d1)
              end = Ok (coef, d1)) by (destruct t; try discriminate At; reflexivity).
  unfold datn_tail. rewrite Z, X. destruct k; try discriminate Ak; destruct (expr_eqb _ e_E); try apply T; reflexivity.
Qed.

Lemma step_datn_frag : forall rec coef d q t, mentries_ok d = true -> atom_ok t = true -> qexp_ok q = true ->
  step_datn rec coef d (ENum q) t = Ok (coef, dstep d (t, ENum q)).
Proof.
  intros rec coef d q t D T Q. destruct (atom_ok_inv _ T) as (_ & _ & At).
  rewrite step_datn_eq. unfold dstep. cbn [fst snd num_of].
  replace (pow_int_term t (ENum q)) with (@None (expr * expr)) by (destruct t; try discriminate At; reflexivity).
  destruct (mlookup t d) as [[k v]|] eqn:L; [|now apply datn_absent_atom].
  destruct (mentries_in _ k v D (mlookup_in _ _ _ _ L)) as (Tk & vn & -> & Qv).
  destruct (atom_ok_inv _ Tk) as (_ & _ & Ak).
  pose proof (qexp_ok_xok _ Qv) as Xv. pose proof (qexp_ok_xok _ Q) as Xq.
  cbn [num_of datn_sum]. rewrite (num_add_ok vn q Xv Xq). cbn [bind]. cbv zeta.
  rewrite datn_found_atom, datn_pow_key_atom by assumption.
  pose proof (xadd_int_rat vn q Qv Q) as K. pose proof (xadd_xok vn q Xv Xq) as X.
  destruct (xadd vn q) as [z|n dd| | | | | ] eqn:E; try contradiction.
  - cbn [num_is_zero]. destruct (z =? 0) eqn:Z0; [reflexivity|]. now apply datn_tail_atom.
  - rewrite (rat_not_zero n dd X). apply datn_tail_atom; auto using rat_not_zero, xok_exact.
Qed.

(* on a dictionary of the fragment: the factor is inserted at its place in the order, or its exponent is added to
   that of the entry with an eq key, and the entry goes if the sum is 0 *)
Inductive dstep_shape (d : mdict) (t : expr) (q : number) : mdict -> Prop :=
| DS_insert : forall d1 d2, d = d1 ++ d2 ->
    (forall p, In p d1 -> expr_keyless (fst p) t = true) ->
    match d2 with [] => True | p :: _ => expr_keyless t (fst p) = true end ->
    dstep_shape d t q (d1 ++ (t, ENum q) :: d2)
| DS_found : forall d1 k n d2, d = d1 ++ (k, ENum n) :: d2 -> atom_ok k = true -> qexp_ok n = true ->
    expr_eqb k t = true ->
    dstep_shape d t q (if num_is_zero (xadd n q) then d1 ++ d2 else d1 ++ (k, ENum (xadd n q)) :: d2).

Lemma dstep_cases : forall d t q, mentries_ok d = true -> atom_ok t = true ->
  dstep_shape d t q (dstep d (t, ENum q)).
Proof.
  intros d t q D T. unfold dstep. cbn [fst snd num_of].
  destruct (mscan t d) as [d1 k v d2 -> A B L S E | d1 d2 -> L I O H]; rewrite L.
  - destruct (mentries_in _ k v D (mlookup_in _ _ _ _ L)) as (Tk & n & -> & Qn).
    cbn [num_of]. cbv zeta. rewrite S, E. apply DS_found; auto.
    apply incomparable_eq; auto; [apply (atom_ok_inv _ Tk) | apply (atom_ok_inv _ T)].
  - rewrite I. now apply DS_insert.
Qed.

Lemma mentries_cons : forall p d, mentries_ok (p :: d) = mentry_ok p && mentries_ok d.
Proof. reflexivity. Qed.

Lemma qexp_ok_add : forall a b, qexp_ok a = true -> qexp_ok b = true -> num_is_zero (xadd a b) = false ->
  qexp_ok (xadd a b) = true.
Proof.
  intros a b Qa Qb Z. pose proof (xadd_int_rat a b Qa Qb) as K. unfold qexp_ok.
  rewrite (xadd_xok a b (qexp_ok_xok _ Qa) (qexp_ok_xok _ Qb)), Z. destruct (xadd a b); try contradiction; reflexivity.
Qed.

Lemma dstep_entries : forall d t q, mentries_ok d = true -> atom_ok t = true -> qexp_ok q = true ->
  mentries_ok (dstep d (t, ENum q)) = true.
Proof.
  intros d t q D T Q.
  destruct (dstep_cases d t q D T) as [d1 d2 -> _ _ | d1 k n d2 -> Tk Qn _];
    rewrite mentries_app, ?mentries_cons in D; apply andb_prop in D; destruct D as [D1 D2].
  - rewrite mentries_app, mentries_cons, D1, D2. unfold mentry_ok. cbn [fst snd]. now rewrite T, Q.
  - apply andb_prop in D2. destruct D2 as [_ D2].
    destruct (num_is_zero (xadd n q)) eqn:Z; rewrite mentries_app, ?mentries_cons, D1, D2; [reflexivity|].
    unfold mentry_ok. cbn [fst snd]. rewrite Tk, qexp_ok_add by assumption. reflexivity.
Qed.

(* mul(a, b) on the fragment *)
(* an operand as coefficient * product of atom^exponent *)
Definition mlin (x : expr) : number * mdict :=
  match x with
  | ENum n => (n, [])
  | EMul c d => (c, d)
  | EPow b e => (NInt 1, [(b, e)])
  | _ => (NInt 1, [(x, e_one)])
  end.
Definition mconst (x : expr) : number := fst (mlin x).
Definition mterms (x : expr) : mdict := snd (mlin x).

Lemma one_qexp : qexp_ok (NInt 1) = true. Proof. reflexivity. Qed.

Lemma mul_operand_ok_terms : forall s x, mul_operand_ok_gen s x = true ->
  xok (mconst x) = true /\ mentries_ok (mterms x) = true.
Proof.
  intros s x H. unfold mconst, mterms.
  destruct x as [| | | | | |pb1 pe1| | | | | | | | | | | ];
    cbn [mlin fst snd mul_operand_ok_gen] in *;
    try (split; [reflexivity|]; cbn [mentries_ok forallb]; unfold mentry_ok; cbn [fst snd e_one e_int]; rewrite H, one_qexp; reflexivity).
  - split; [exact H | reflexivity].
  - apply andb_prop in H. destruct H as [H _]. apply andb_prop in H. destruct H as [H _].
    apply andb_prop in H. destruct H as [H _]. apply andb_prop in H. destruct H as [H E].
    apply andb_prop in H. destruct H as [X _]. auto.
  - destruct pe1; try discriminate H. apply andb_prop in H. destruct H as [H _]. apply andb_prop in H. destruct H as [A Q].
    split; [reflexivity|]. cbn [mentries_ok forallb]. unfold mentry_ok. cbn [fst snd]. now rewrite A, Q.
Qed.

Lemma arith_S : forall f c, arith (S f) c = step (arith f) c.
Proof. reflexivity. Qed.

Lemma rS_datn_frag : forall f coef d q t, mentries_ok d = true -> atom_ok t = true -> qexp_ok q = true ->
  rS (arith (S f)) (CDatn coef d (ENum q) t) = Ok (coef, dstep d (t, ENum q)).
Proof.
  intros f coef d q t D T Q. unfold rS. rewrite arith_S. cbn [step]. rewrite step_datn_frag by assumption.
  reflexivity.
Qed.

Lemma dmerge_entries : forall l d, mentries_ok d = true -> mentries_ok l = true -> mentries_ok (dmerge d l) = true.
Proof.
  unfold dmerge. induction l as [|[t v] l IH]; intros d D L; cbn [fold_left]; [exact D|].
  apply mentries_cons_inv in L. destruct L as (q & -> & T & Q & L). apply IH; auto. now apply dstep_entries.
Qed.

Lemma datn_loop_frag : forall f l coef d, mentries_ok d = true -> mentries_ok l = true ->
  datn_loop (arith (S f)) coef d l = Ok (coef, dmerge d l).
Proof.
  unfold datn_loop, dmerge. induction l as [|[t v] l IH]; intros coef d D L; cbn [fold_res fold_left]; [reflexivity|].
  apply mentries_cons_inv in L. destruct L as (q & -> & T & Q & L). cbn [fst snd].
  rewrite rS_datn_frag by assumption. cbn [bind fst snd]. apply IH; auto. now apply dstep_entries.
Qed.

(* one operand that is not a Mul *)
Definition not_mul (x : expr) : Prop := match x with EMul _ _ => False | _ => True end.
Lemma mul_or_not : forall x, (exists c d, x = EMul c d) \/ not_mul x.
Proof. destruct x; unfold not_mul; eauto. Qed.

Lemma mul_operand_frag : forall f coef d x, xok coef = true -> mentries_ok d = true -> mul_operand_ok x = true ->
  not_mul x ->
  mul_operand (arith (S f)) coef d x = Ok (xmul coef (mconst x), dmerge d (mterms x)).
Proof.
  intros f coef d x Xc D H NM. destruct (mul_operand_ok_terms _ x H) as [Xx Tx].
  unfold mconst, mterms in *. unfold mul_operand.
  destruct x as [n1| | | | | | | | | | | | | | | | | ];
    try contradiction; cbn [mlin fst snd as_base_exp bind] in *;
    try (rewrite xmul_1_r by assumption; cbn [mentries_ok forallb] in Tx; rewrite andb_true_r in Tx;
         destruct (mentry_ok_inv _ _ Tx) as (T & q & Eq & Q); unfold e_one, e_int in Eq; injection Eq as <-;
         unfold e_one, e_int; rewrite rS_datn_frag by assumption; reflexivity).
  - rewrite (num_mul_ok coef n1 Xc Xx). reflexivity.
  - rewrite xmul_1_r by assumption. apply mentries_cons_inv in Tx. destruct Tx as (q & -> & T & Q & _).
    rewrite rS_datn_frag by assumption. reflexivity.
Qed.

Lemma mul_from_dict_one_one : xmul (NInt 1) (NInt 1) = NInt 1. Proof. reflexivity. Qed.

(* the cases of mul(a, b) *)
Definition mul_result (st : number * mdict) : res expr := Ok (mul_from_dict (fst st) (snd st)).
Lemma step_mul_l : forall rec ca da b, not_mul b ->
  step_mul rec (EMul ca da) b = bind (mul_operand rec ca da b) mul_result.
Proof. intros rec ca da b N. destruct b; try contradiction; reflexivity. Qed.
Lemma step_mul_r : forall rec a cb db, not_mul a ->
  step_mul rec a (EMul cb db) = bind (mul_operand rec cb db a) mul_result.
Proof. intros rec a cb db N. destruct a; try contradiction; reflexivity. Qed.
Lemma step_mul_nonmul : forall rec a b, not_mul a -> not_mul b ->
  step_mul rec a b =
  bind (bind (mul_operand rec (NInt 1) [] a) (fun st => mul_operand rec (fst st) (snd st) b)) mul_result.
Proof. intros rec a b Na Nb. destruct a; try contradiction; destruct b; try contradiction; reflexivity. Qed.

Theorem e_mul_spec : forall f a b, mul_operand_ok a = true -> mul_operand_ok b = true ->
  exists X Y, e_mul (S (S f)) a b = Ok (mul_from_dict (xmul (mconst a) (mconst b)) (dmerge X Y)) /\
    ((X = mterms a /\ Y = mterms b) \/ (X = mterms b /\ Y = mterms a) \/ (X = dmerge [] (mterms a) /\ Y = mterms b)).
Proof.
  intros f a b Ha Hb.
  destruct (mul_operand_ok_terms _ a Ha) as [Xa Ta]. destruct (mul_operand_ok_terms _ b Hb) as [Xb Tb].
  unfold e_mul, rE. rewrite arith_S. cbn [step].
  destruct (mul_or_not a) as [(ca & da & ->)|NA]; destruct (mul_or_not b) as [(cb & db & ->)|NB].
  - unfold mconst, mterms in *. cbn [mlin fst snd] in *. unfold step_mul.
    exists da, db. split; [|left; auto].
    assert (C : (if negb (num_is_one ca) || negb (num_is_one cb) then num_mul ca cb else Ok (NInt 1)) = Ok (xmul ca cb)).
    { destruct (num_is_one ca) eqn:O1; destruct (num_is_one cb) eqn:O2; cbn [negb orb]; try (now apply num_mul_ok).
      rewrite (is_one_eq ca Xa O1), (is_one_eq cb Xb O2). reflexivity. }
    rewrite C. cbn [bind]. rewrite datn_loop_frag by assumption. reflexivity.
  - rewrite step_mul_l by assumption. unfold mconst at 1. unfold mterms in *. cbn [mlin fst snd] in *.
    rewrite mul_operand_frag by assumption.
    exists da, (snd (mlin b)). split; [reflexivity | left; auto].
  - rewrite step_mul_r by assumption. unfold mconst at 2. unfold mterms in *. cbn [mlin fst snd] in *.
    rewrite mul_operand_frag by assumption. cbn [bind mul_result fst snd].
    rewrite (xmul_comm cb (mconst a)) by assumption.
    exists db, (snd (mlin a)). split; [reflexivity | right; left; auto].
  - rewrite step_mul_nonmul by assumption. rewrite mul_operand_frag by (auto; reflexivity). cbn [bind fst snd].
    rewrite xmul_1_l by assumption.
    rewrite mul_operand_frag; auto; [|apply dmerge_entries; auto; reflexivity].
    exists (dmerge [] (mterms a)), (mterms b). split; [reflexivity | right; right; auto].
Qed.

(* Mul::from_dict on the fragment: closure, well-formedness, canonical form *)
Lemma atom_operand : forall k, atom_ok k = true -> forall s, mul_operand_ok_gen s k = true.
Proof.
  intros k H s. destruct (atom_ok_inv _ H) as (_ & _ & A).
  destruct k; try discriminate A; exact H.
Qed.

Lemma qexp_not_one : forall n, qexp_ok n = true -> n <> NInt 1 -> num_is_one n = false /\ expr_eqb (ENum n) e_one = false.
Proof.
  intros n Q NE. pose proof (qexp_ok_xok _ Q) as X. split.
  - destruct (num_is_one n) eqn:O; [|reflexivity]. apply is_one_eq in O; auto. contradiction.
  - unfold e_one, e_int. rewrite eqb_ENum. destruct (SE.Expr.Cmp.num_eqb n (NInt 1)) eqn:E; [|reflexivity].
    apply cmp_num_eqb_eq in E; auto. contradiction.
Qed.

Lemma msorted_single : forall p, msorted [p] = true. Proof. reflexivity. Qed.

(* the four shapes of Mul::from_dict on the fragment *)
Inductive mfd_shape (c : number) (d : mdict) : expr -> Prop :=
| MFD_num : num_is_zero c = true \/ d = [] -> mfd_shape c d (ENum c)
| MFD_atom : forall k, num_is_zero c = false -> num_is_one c = true -> d = [(k, e_one)] -> atom_ok k = true ->
    mfd_shape c d k
| MFD_pow : forall k n, num_is_zero c = false -> num_is_one c = true -> d = [(k, ENum n)] -> atom_ok k = true ->
    qexp_ok n = true -> n <> NInt 1 -> mfd_shape c d (EPow k (ENum n))
| MFD_mul : num_is_zero c = false -> d <> [] -> (num_is_one c = false \/ (2 <= length d)%nat) ->
    mfd_shape c d (EMul c d).

Lemma mfd_cases : forall c d, mentries_ok d = true -> mfd_shape c d (mul_from_dict c d).
Proof.
  intros c d D. unfold mul_from_dict. destruct (num_is_zero c) eqn:Zc; [apply MFD_num; auto|].
  destruct d as [|[k v] [|p2 d]].
  - apply MFD_num; auto.
  - apply mentries_cons_inv in D. destruct D as (n & -> & T & Q & _).
    destruct (num_is_one c) eqn:Oc.
    + assert (G : n <> NInt 1 -> mfd_shape c [(k, ENum n)] (if expr_eqb (ENum n) e_one then k else EPow k (ENum n))).
      { intros NE. destruct (qexp_not_one n Q NE) as [_ E]. rewrite E. now apply MFD_pow. }
      destruct n as [z| | | | | | ]; try (apply G; discriminate).
      destruct (z =? 1) eqn:Z1; [apply Z.eqb_eq in Z1; subst z; now apply MFD_atom|].
      apply G. intros Q1. injection Q1 as ->. discriminate Z1.
    + assert (M : mfd_shape c [(k, ENum n)] (EMul c [(k, ENum n)])) by (apply MFD_mul; auto; discriminate).
      destruct n; exact M.
  - apply MFD_mul; auto; [discriminate | right; cbn [length]; lia].
Qed.

Theorem mfd_closed : forall s c d, xok c = true -> mentries_ok d = true -> (s = true -> msorted d = true) ->
  mul_operand_ok_gen s (mul_from_dict c d) = true.
Proof.
  intros s c d Xc D SD. destruct (mfd_cases c d D) as [_ | k Zc Oc -> T | k n Zc Oc -> T Q NE | Zc NE H].
  - exact Xc.
  - now apply atom_operand.
  - cbn [mul_operand_ok_gen]. destruct (qexp_not_one n Q NE) as [O _]. now rewrite T, Q, O.
  - cbn [mul_operand_ok_gen]. rewrite Xc, Zc, D. cbn [negb andb].
    assert (S' : (if s then msorted d else true) = true) by (destruct s; auto). rewrite S'.
    destruct d as [|p [|q r]]; [contradiction | | now rewrite andb_false_r].
    destruct H as [O|L]; [now rewrite O | cbn [length] in L; lia].
Qed.

Lemma wf_ENum_x : forall n, xok n = true -> wf (ENum n) = true.
Proof. exact xok_wf_expr. Qed.

Lemma wf_EMul_intro : forall c d, xok c = true -> (forall p, In p d -> wf (fst p) = true /\ wf (snd p) = true) ->
  wf (EMul c d) = true.
Proof.
  intros c d Xc H. apply wf_intro.
  - cbn [wf_struct]. rewrite (xok_wf c Xc). cbn [andb]. apply forallb_forall. intros p Hp.
    destruct (H p Hp) as [A B]. now rewrite (proj1 (wf_parts _ A)), (proj1 (wf_parts _ B)).
  - cbn [codes_ok]. rewrite node_ok_Mul. cbn [andb]. apply forallb_forall. intros p Hp.
    destruct (H p Hp) as [A B]. now rewrite (proj2 (wf_parts _ A)), (proj2 (wf_parts _ B)).
Qed.

Lemma node_ok_Pow : forall b e, node_ok (EPow b e) = true. Proof. reflexivity. Qed.
Lemma wf_EPow_intro : forall b e, wf b = true -> wf e = true -> wf (EPow b e) = true.
Proof.
  intros b e A B. apply wf_intro.
  - cbn [wf_struct]. now rewrite (proj1 (wf_parts _ A)), (proj1 (wf_parts _ B)).
  - cbn [codes_ok]. now rewrite node_ok_Pow, (proj2 (wf_parts _ A)), (proj2 (wf_parts _ B)).
Qed.

Lemma mentries_wf : forall d, mentries_ok d = true -> forall p, In p d -> wf (fst p) = true /\ wf (snd p) = true.
Proof.
  intros d D [k v] Hp. destruct (mentries_in _ k v D Hp) as (T & n & -> & Q). cbn [fst snd].
  split; [apply (atom_ok_inv _ T) | apply wf_ENum_x; now apply qexp_ok_xok].
Qed.

Lemma mentry_canonical : forall k n, atom_ok k = true -> qexp_ok n = true ->
  mul_entry_canonical (k, ENum n) = true /\ canonical k = true /\ canonical (ENum n) = true.
Proof.
  intros k n T Q. destruct (atom_ok_inv _ T) as (_ & C & A). split; [|split; [exact C|]].
  - unfold mul_entry_canonical. cbn [fst snd is_number_and_zero]. rewrite (qexp_ok_nz _ Q).
    destruct k; try discriminate A; reflexivity.
  - cbn [canonical node_canonical]. rewrite (xok_canonical n (qexp_ok_xok _ Q)). reflexivity.
Qed.

Lemma canonical_EMul_frag : forall c d, xok c = true -> num_is_zero c = false -> mentries_ok d = true ->
  d <> [] -> (num_is_one c = false \/ (2 <= length d)%nat) -> canonical (EMul c d) = true.
Proof.
  intros c d Xc Zc D NE H. cbn [canonical node_canonical]. rewrite (xok_canonical c Xc). cbn [andb].
  assert (ENT : forallb mul_entry_canonical d = true /\ forallb (fun p => canonical (fst p) && canonical (snd p)) d = true).
  { split; apply forallb_forall; intros [k v] Hp;
      destruct (mentries_in _ k v D Hp) as (T & n & -> & Q);
      destruct (mentry_canonical k n T Q) as (A & B & C'); cbn [fst snd]; [exact A | now rewrite B, C']. }
  destruct ENT as [E1 E2]. rewrite E2, andb_true_r. unfold mul_node_canonical. rewrite Zc. cbn [negb andb].
  destruct d as [|p [|q d]]; [contradiction | | exact E1].
  destruct H as [O|L]; [rewrite O; exact E1 | cbn [length] in L; lia].
Qed.

Lemma canonical_EPow_frag : forall k n, atom_ok k = true -> qexp_ok n = true -> n <> NInt 1 ->
  canonical (EPow k (ENum n)) = true.
Proof.
  intros k n T Q NE. destruct (mentry_canonical k n T Q) as (_ & Ck & Cn). destruct (atom_ok_inv _ T) as (_ & _ & A).
  change (canonical (EPow k (ENum n))) with (node_canonical (EPow k (ENum n)) && (canonical k && canonical (ENum n))).
  rewrite Ck, Cn, andb_true_r. cbn [node_canonical].
  unfold pow_node_canonical. cbn [is_number_and_zero]. rewrite (qexp_ok_nz _ Q).
  assert (I1 : is_int_val (ENum n) 1 = false).
  { cbn [is_int_val]. destruct n; try reflexivity. apply Z.eqb_neq. intros ->. contradiction. }
  rewrite I1. destruct k; try discriminate A; reflexivity.
Qed.

(* operands of the fragment are themselves canonical and well formed: the closure theorems only have to
   establish the guard *)
Lemma mul_operand_good : forall s a, mul_operand_ok_gen s a = true -> canonical a = true /\ wf a = true.
Proof.
  intros s a H.
  assert (ATOM : atom_ok a = true -> canonical a = true /\ wf a = true).
  { intros T. destruct (atom_ok_inv _ T) as (W & C & _). auto. }
  destruct a as [n1| | | | |mc1 md1|pb1 pe1| | | | | | | | | | | ];
    cbn [mul_operand_ok_gen] in H; try (now apply ATOM).
  - split; [cbn [canonical node_canonical]; now rewrite (xok_canonical n1 H) | now apply wf_ENum_x].
  - apply andb_prop in H. destruct H as [H O]. apply andb_prop in H. destruct H as [H NE].
    apply andb_prop in H. destruct H as [H _]. apply andb_prop in H. destruct H as [H D].
    apply andb_prop in H. destruct H as [X Z]. apply negb_true_iff in Z, O.
    split.
    + apply canonical_EMul_frag; auto.
      * intros ->. discriminate NE.
      * destruct (num_is_one mc1); [right|left; reflexivity].
        destruct md1 as [|p [|q r]]; [discriminate NE | discriminate O | cbn [length]; lia].
    + apply wf_EMul_intro; auto. now apply mentries_wf.
  - destruct pe1 as [n| | | | | | | | | | | | | | | | | ]; try discriminate H.
    apply andb_prop in H. destruct H as [H O]. apply andb_prop in H. destruct H as [T Q]. apply negb_true_iff in O.
    assert (NE : n <> NInt 1) by (intros ->; discriminate O).
    split; [now apply canonical_EPow_frag|]. apply wf_EPow_intro; [apply (atom_ok_inv _ T) | apply wf_ENum_x; now apply qexp_ok_xok].
Qed.

Lemma mfd_good : forall c d, xok c = true -> mentries_ok d = true ->
  canonical (mul_from_dict c d) = true /\ wf (mul_from_dict c d) = true.
Proof. intros c d Xc D. apply (mul_operand_good false), mfd_closed; auto. discriminate. Qed.

(* C03: mul on the fragment *)
Theorem mul_total_closed : forall f a b, mul_operand_ok a = true -> mul_operand_ok b = true ->
  exists r, e_mul (S (S f)) a b = Ok r /\ mul_operand_ok r = true /\ canonical r = true /\ wf r = true.
Proof.
  intros f a b Ha Hb. destruct (e_mul_spec f a b Ha Hb) as (X & Y & E & XY).
  destruct (mul_operand_ok_terms _ a Ha) as [Xa Ta]. destruct (mul_operand_ok_terms _ b Hb) as [Xb Tb].
  assert (D : mentries_ok (dmerge X Y) = true).
  { destruct XY as [[-> ->]|[[-> ->]|[-> ->]]]; apply dmerge_entries; auto. apply dmerge_entries; auto. }
  assert (Xc : xok (xmul (mconst a) (mconst b)) = true) by auto using xmul_xok.
  eexists. split; [exact E|]. split; [apply mfd_closed; auto; discriminate | now apply mfd_good].
Qed.

Theorem mul_canonical : forall fuel a b r, mul_operand_ok a = true -> mul_operand_ok b = true ->
  e_mul fuel a b = Ok r -> mul_operand_ok r = true /\ canonical r = true /\ wf r = true.
Proof.
  intros fuel a b r Ha Hb E.
  destruct (mul_total_closed fuel a b Ha Hb) as (r' & E' & C).
  now rewrite (e_mul_det _ _ _ _ _ _ E E').
Qed.
