(* C07 -- semantics of the rational-function fragment: the value of an expression in Q(i) (pairs of
   rationals, Num/NumSpec.v) under a valuation of the symbols and constants.  Total: anything outside
   the fragment (inexact numbers, non-integer exponents, function applications) has the junk value 0
   and [dfn] = false; division by zero is Q's 1/0 = 0 and [dfn] = false. *)
From SE Require Export Expr.ArithAddProofs.
From SE Require Import Num.NumSpec Num.NumQi Num.NumC05 Expr.CmpProofs.
From Coq Require Import QArith Lia Permutation Setoid Morphisms.
Local Open Scope Z_scope.

Definition qi_zerob (v : qi) : bool := Qeq_bool (fst v) 0 && Qeq_bool (snd v) 0.

(* v ^ x for an exponent expression: integer literals only *)
Definition qpow (v : qi) (x : expr) : qi :=
  match x with ENum (NInt z) => qi_powz v z | _ => qi_zero end.
Definition pow_dfn (v : qi) (x : expr) : bool :=
  match x with ENum (NInt z) => (0 <=? z) || negb (qi_zerob v) | _ => false end.

Section Denote.
  Variable rho : list N -> qi.       (* values of the symbols, by name *)
  Variable rhoc : list N -> qi.      (* values of the constants (pi, E, ...), by name *)

  Fixpoint denote (e : expr) : qi :=
    match e with
    | ENum n => qval n
    | ESym name => rho name
    | EConst name => rhoc name
    | EAdd c d =>
        qi_add (qval c) (fold_right (fun p acc => qi_add (qi_mul (qval (snd p)) (denote (fst p))) acc) qi_zero d)
    | EMul c d => fold_right (fun p acc => qi_mul (qpow (denote (fst p)) (snd p)) acc) (qval c) d
    | EPow b x => qpow (denote b) x
    | _ => qi_zero
    end.

  Definition wprod (d : mdict) : qi :=
    fold_right (fun p acc => qi_mul (qpow (denote (fst p)) (snd p)) acc) qi_one d.

  Fixpoint dfn (e : expr) : bool :=
    match e with
    | ENum n => num_is_exact n
    | ESym _ | EConst _ => true
    | EAdd c d => num_is_exact c && forallb (fun p => num_is_exact (snd p) && dfn (fst p)) d
    | EMul c d => num_is_exact c && forallb (fun p => dfn (fst p) && pow_dfn (denote (fst p)) (snd p)) d
    | EPow b x => dfn b && pow_dfn (denote b) x
    | _ => false
    end.

  Lemma wsum_fold : forall (phi : expr -> qi) d,
    wsum phi d = fold_right (fun p acc => qi_add (qi_mul (qval (snd p)) (phi (fst p))) acc) qi_zero d.
  Proof. induction d as [|p d IH]; cbn [wsum fold_right]; [reflexivity | now rewrite IH]. Qed.

  Lemma denote_EAdd : forall c d, denote (EAdd c d) = qi_add (qval c) (wsum denote d).
  Proof. intros. cbn [denote]. now rewrite wsum_fold. Qed.
  Lemma denote_EMul : forall c d, denote (EMul c d) = fold_right (fun p acc => qi_mul (qpow (denote (fst p)) (snd p)) acc) (qval c) d.
  Proof. reflexivity. Qed.

  (* eq expressions have the same value *)
  Lemma qval_num_eqb : forall x y, Wf.num_wf x = true -> Wf.num_wf y = true ->
    SE.Expr.Cmp.num_eqb x y = true -> qi_eq (qval x) (qval y).
  Proof.
    intros x y Wx Wy E. destruct (num_is_exact x) eqn:EX.
    - assert (EY : num_is_exact y = true) by (destruct x; destruct y; try discriminate E; try discriminate EX; reflexivity).
      rewrite (cmp_num_eqb_eq x y (wf_xok x EX Wx) (wf_xok y EY Wy) E). reflexivity.
    - assert (EY : num_is_exact y = false) by (destruct x; destruct y; try discriminate E; try discriminate EX; reflexivity).
      unfold qval. destruct x; try discriminate EX; destruct y; try discriminate EY; reflexivity.
  Qed.

  Lemma int_literal_eq : forall z x, wf x = true -> expr_eqb (ENum (NInt z)) x = true -> x = ENum (NInt z).
  Proof.
    intros z x W E. pose proof (expr_eqb_kind _ _ E) as K. destruct x; try discriminate K.
    rewrite eqb_ENum in E. destruct n; try discriminate E. cbn in E. apply Z.eqb_eq in E. now subst.
  Qed.

  Lemma qpow_respects : forall v v' x x', wf x = true -> wf x' = true -> expr_eqb x x' = true ->
    qi_eq v v' -> qi_eq (qpow v x) (qpow v' x').
  Proof.
    intros v v' x x' W W' E V.
    assert (C : (exists z, x = ENum (NInt z)) \/ (forall z, x <> ENum (NInt z))).
    { destruct x as [[z| | | | | | ]| | | | | | | | | | | | | | | | | ]; try (right; intros; discriminate). left. eauto. }
    destruct C as [[z ->]|NL].
    - rewrite (int_literal_eq z x' W' E). cbn [qpow]. now apply qi_powz_proper.
    - assert (NL' : forall z, x' <> ENum (NInt z)).
      { intros z ->. rewrite expr_eqb_sym_eq in E by assumption. apply int_literal_eq in E; auto. eapply NL; eauto. }
      assert (Z1 : qpow v x = qi_zero).
      { destruct x as [[z| | | | | | ]| | | | | | | | | | | | | | | | | ]; try reflexivity. exfalso. eapply NL; eauto. }
      assert (Z2 : qpow v' x' = qi_zero).
      { destruct x' as [[z| | | | | | ]| | | | | | | | | | | | | | | | | ]; try reflexivity. exfalso. eapply NL'; eauto. }
      rewrite Z1, Z2. reflexivity.
  Qed.

  Lemma wsum_forall2 : forall (phi : expr -> qi) d1 d2,
    Forall2 (fun p q => qi_eq (phi (fst p)) (phi (fst q)) /\ qi_eq (qval (snd p)) (qval (snd q))) d1 d2 ->
    qi_eq (wsum phi d1) (wsum phi d2).
  Proof.
    intros phi d1 d2 F. induction F as [|p q d1 d2 [A B] F IH]; cbn [wsum]; [reflexivity|].
    apply qi_add_proper; [apply qi_mul_proper; assumption | exact IH].
  Qed.

  (* The cases of a sum and of a product, with what is known of the keys / factors as a hypothesis
     (in [denote_respects_n]: the induction hypothesis). *)
  Lemma denote_add_respects : forall c1 c2 d1 d2, wf (EAdd c1 d1) = true -> wf (EAdd c2 d2) = true ->
    (forall x y, In x (map fst d1) -> wf x = true -> wf y = true -> expr_eqb x y = true ->
       qi_eq (denote x) (denote y)) ->
    SE.Expr.Cmp.num_eqb c1 c2 = true -> umap_eqb expr_eqb d1 d2 = true ->
    qi_eq (denote (EAdd c1 d1)) (denote (EAdd c2 d2)).
  Proof.
    intros c1 c2 d1 d2 Wa Wb H EC EU.
    destruct (wf_add _ _ Wa) as (Wc1 & K1 & N1). destruct (wf_add _ _ Wb) as (Wc2 & K2 & N2).
    rewrite !denote_EAdd. apply qi_add_proper; [now apply qval_num_eqb|].
    assert (O1 : dict_ok Pwf d1) by (split; [exact K1 | exact N1]).
    assert (O2 : dict_ok Pwf d2) by (split; [exact K2 | exact N2]).
    (* d2 rearranged so that its entries stand opposite their partners in d1; a sum ignores the order *)
    destruct (umap_eqb_matching Pwf expr_eqb_sym expr_eqb_trans hash_respects_eq d1 d2 O1 O2 EU) as (l2 & P & F).
    etransitivity; [|symmetry; apply wsum_perm; exact P].
    apply wsum_forall2. apply (Forall2_impl_in entry_rel); [|exact F]. intros p q Hp Hq [R1 R2].
    destruct (K1 p Hp) as [Wp Vp].
    destruct (K2 q) as [Wq Vq]; [eapply Permutation_in; [apply Permutation_sym; exact P | exact Hq]|].
    split; [|now apply qval_num_eqb].
    apply H; [now apply in_map | exact Wp | exact Wq|]. rewrite expr_eqb_sym_eq by assumption. exact R1.
  Qed.

  Lemma denote_mul_respects : forall c1 c2 d1 d2, qi_eq (qval c1) (qval c2) ->
    (forall x, In x (flat d1) -> wf x = true) -> (forall x, In x (flat d2) -> wf x = true) ->
    (forall x y, In x (flat d1) -> wf x = true -> wf y = true -> expr_eqb x y = true ->
       qi_eq (denote x) (denote y)) ->
    list_eqb expr_eqb (flat d1) (flat d2) = true ->
    qi_eq (denote (EMul c1 d1)) (denote (EMul c2 d2)).
  Proof.
    intros c1 c2 d1 d2 EC. rewrite !denote_EMul. revert d2.
    induction d1 as [|[k1 v1] d1 IHm]; intros [|[k2 v2] d2] W1 W2 H EL;
      cbn [flat flat_map app list_eqb fst snd] in EL; try discriminate EL; cbn [fold_right fst snd].
    - exact EC.
    - apply andb_prop in EL. destruct EL as [Ek EL]. apply andb_prop in EL. destruct EL as [Ev EL].
      assert (Wk1 : wf k1 = true) by (apply W1; cbn; auto). assert (Wv1 : wf v1 = true) by (apply W1; cbn; auto).
      assert (Wk2 : wf k2 = true) by (apply W2; cbn; auto). assert (Wv2 : wf v2 = true) by (apply W2; cbn; auto).
      apply qi_mul_proper.
      + apply qpow_respects; auto. apply H; auto. cbn; auto.
      + apply IHm; auto.
        * intros x Hx. apply W1. cbn [flat flat_map app]. right. right. exact Hx.
        * intros x Hx. apply W2. cbn [flat flat_map app]. right. right. exact Hx.
        * intros x y Hx. apply H. cbn [flat flat_map app]. right. right. exact Hx.
  Qed.

  Lemma denote_respects_n : forall n a b, (size a < n)%nat -> wf a = true -> wf b = true ->
    expr_eqb a b = true -> qi_eq (denote a) (denote b).
  Proof.
    induction n as [|n IH]; intros a b Sz Wa Wb E; [lia|].
    assert (CH : forall x y, In x (children a) -> wf x = true -> wf y = true -> expr_eqb x y = true ->
              qi_eq (denote x) (denote y)).
    { intros x y Hx Wx Wy Exy. apply IH; auto. apply children_size in Hx. lia. }
    rewrite expr_eqb_unfold in E.
    destruct a as [| | | |ac1 ad1|mc1 md1|pb1 pe1| | | | | | | | | | | ];
    destruct b as [| | | |ac2 ad2|mc2 md2|pb2 pe2| | | | | | | | | | | ];
      cbn [eqb_body] in E; try discriminate E; try reflexivity.
    - (* numbers *) rewrite wf_num in Wa, Wb. cbn [denote]. now apply qval_num_eqb.
    - (* symbols *) apply bytes_eqb_eq in E. subst. reflexivity.
    - (* constants *) apply bytes_eqb_eq in E. subst. reflexivity.
    - (* Add *)
      apply andb_prop in E. destruct E as [EC EU]. now apply denote_add_respects.
    - (* Mul *)
      apply andb_prop in E. destruct E as [EC EL].
      pose proof (wf_coef _ Wa) as Wc1. pose proof (wf_coef _ Wb) as Wc2. cbn beta iota in Wc1, Wc2.
      apply denote_mul_respects; [now apply qval_num_eqb | | | exact CH | exact EL].
      + intros x Hx. apply (children_wf _ x Wa). exact Hx.
      + intros x Hx. apply (children_wf _ x Wb). exact Hx.
    - (* Pow *)
      apply andb_prop in E. destruct E as [Eb Ee]. cbn [denote].
      assert (Wb1 : wf pb1 = true) by (apply (children_wf _ pb1 Wa); cbn; auto).
      assert (We1 : wf pe1 = true) by (apply (children_wf _ pe1 Wa); cbn; auto).
      assert (Wb2 : wf pb2 = true) by (apply (children_wf _ pb2 Wb); cbn; auto).
      assert (We2 : wf pe2 = true) by (apply (children_wf _ pe2 Wb); cbn; auto).
      apply qpow_respects; auto. apply CH; auto. cbn; auto.
  Qed.

  Theorem denote_respects : forall a b, wf a = true -> wf b = true -> expr_eqb a b = true ->
    qi_eq (denote a) (denote b).
  Proof. intros a b. apply (denote_respects_n (S (size a))). lia. Qed.

  Lemma denote_respects' : respects denote.
  Proof. exact denote_respects. Qed.


  Lemma fold_mul_init : forall d a,
    qi_eq (fold_right (fun p acc => qi_mul (qpow (denote (fst p)) (snd p)) acc) a d) (qi_mul (wprod d) a).
  Proof.
    induction d as [|p d IH]; intros a; unfold wprod; cbn [fold_right].
    - symmetry. apply qi_mul_1_l.
    - rewrite IH. fold (wprod d). apply qi_mul_assoc.
  Qed.
  Lemma denote_EMul' : forall c d, qi_eq (denote (EMul c d)) (qi_mul (wprod d) (qval c)).
  Proof. intros. rewrite denote_EMul. apply fold_mul_init. Qed.

  Lemma qi_powz_1 : forall x, qi_eq (qi_powz x 1) x.
  Proof. intros x. cbn. apply qi_mul_1_r. Qed.

  Lemma eqb_one_literal : forall v, expr_eqb v e_one = true -> v = e_one.
  Proof.
    intros v E. pose proof (expr_eqb_kind _ _ E) as K. destruct v; try discriminate K.
    unfold e_one, e_int in *. rewrite eqb_ENum in E. destruct n; try discriminate E.
    cbn in E. apply Z.eqb_eq in E. now subst.
  Qed.

  Lemma den_mul_from_dict_1 : forall d, qi_eq (denote (mul_from_dict (NInt 1) d)) (wprod d).
  Proof.
    intros d. destruct d as [|[k v] [|p2 d]].
    - reflexivity.
    - assert (ONE : qi_eq (denote k) (wprod [(k, e_one)])).
      { unfold wprod. cbn [fold_right fst snd qpow e_one e_int]. rewrite qi_mul_1_r. symmetry. apply qi_powz_1. }
      assert (GEN : qi_eq (denote (if expr_eqb v e_one then k else EPow k v)) (wprod [(k, v)])).
      { destruct (expr_eqb v e_one) eqn:E; [rewrite (eqb_one_literal v E); exact ONE|].
        unfold wprod. cbn [denote fold_right fst snd]. symmetry. apply qi_mul_1_r. }
      unfold mul_from_dict. cbn [num_is_zero num_is_one Z.eqb].
      destruct v as [[z| | | | | | ]| | | | | | | | | | | | | | | | | ]; try exact GEN.
      destruct (z =? 1) eqn:Z1; [|exact GEN]. apply Z.eqb_eq in Z1. subst. exact ONE.
    - rewrite mul_from_dict_ge2 by reflexivity. rewrite denote_EMul'. apply qi_mul_1_r.
  Qed.

  Lemma den_as_coef_term : forall x,
    qi_eq (denote x) (qi_mul (qval (fst (as_coef_term x))) (denote (snd (as_coef_term x)))).
  Proof.
    intros x.
    assert (TRIV : qi_eq (denote x) (qi_mul (qval (NInt 1)) (denote x))) by (symmetry; apply qi_mul_1_l).
    destruct x; try exact TRIV.
    - cbn [as_coef_term fst snd denote]. symmetry. apply qi_mul_1_r.
    - cbn [as_coef_term]. destruct (num_neq_int coef 1) eqn:NE; cbn [fst snd]; [|exact TRIV].
      rewrite denote_EMul'. rewrite den_mul_from_dict_1. apply qi_mul_comm.
  Qed.

  (* the value of a linear form *)
  Lemma den_lin : forall x, add_operand_ok x = true ->
    qi_eq (denote x) (qi_add (qval (lconst x)) (wsum denote (lterms x))).
  Proof.
    intros x H. destruct (aok_inv x H) as [Xc D].
    destruct (add_or_not x) as [(cx & dx & ->)|NA]; [apply eq_subrelation; [typeclasses eauto | apply denote_EAdd]|].
    destruct (nonadd_cases x H NA) as [n EQ Xn | c t CT LIN T Xct Zc NN].
    - subst x. unfold lconst, lterms. cbn [lin_of fst snd wsum denote]. symmetry. apply qi_add_0_r.
    - unfold lconst, lterms. rewrite LIN. cbn [fst snd wsum]. rewrite qval_int.
      pose proof (den_as_coef_term x) as DC. rewrite CT in DC. cbn [fst snd] in DC.
      etransitivity; [exact DC|]. rewrite qi_add_0_l. symmetry. apply qi_add_0_r.
  Qed.

  Lemma den_single_term_mul : forall v k, num_is_zero v = false -> term_ok k = true ->
    qi_eq (denote (single_term_mul v k)) (qi_mul (qval v) (denote k)).
  Proof.
    intros v k Zv T.
    assert (SINGLE : forall a e, qi_eq (denote (EMul v [(a, e)])) (qi_mul (qval v) (qpow (denote a) e))).
    { intros a e. rewrite denote_EMul'. unfold wprod. cbn [fold_right fst snd]. rewrite qi_mul_1_r. apply qi_mul_comm. }
    destruct (term_cases k T) as [p1 p2 d | b e _ | a A _].
    - rewrite stm_mul by exact Zv. rewrite !denote_EMul', qval_int, qi_mul_1_r. apply qi_mul_comm.
    - exact (SINGLE b e).
    - rewrite stm_atom by exact A. rewrite SINGLE. cbn [qpow e_one e_int]. now rewrite qi_powz_1.
  Qed.

  Lemma den_afd : forall c d, xok c = true -> adict_ok d = true ->
    qi_eq (denote (add_from_dict c d)) (qi_add (qval c) (wsum denote d)).
  Proof.
    intros c d Xc D. destruct (afd_cases c d D) as [-> | k Zc -> T | k v Zc -> T Xv Zv N1 | NE H].
    - cbn [denote wsum]. symmetry. apply qi_add_0_r.
    - rewrite (is_zero_eq c Xc Zc). cbn [wsum fst snd]. rewrite !qval_int, qi_add_0_r, qi_add_0_l. symmetry. apply qi_mul_1_l.
    - rewrite (is_zero_eq c Xc Zc), qval_int. cbn [wsum fst snd].
      rewrite den_single_term_mul by assumption. rewrite qi_add_0_r. symmetry. apply qi_add_0_l.
    - apply eq_subrelation; [typeclasses eauto | apply denote_EAdd].
  Qed.

  (* C07: add(a, b) has the value of a plus the value of b *)
  Theorem add_sound : forall a b r, add_operand_ok a = true -> add_operand_ok b = true ->
    e_add a b = Ok r -> qi_eq (denote r) (qi_add (denote a) (denote b)).
  Proof.
    intros a b r Ha Hb E.
    destruct (aok_inv a Ha) as [Xa _]. destruct (aok_inv b Hb) as [Xb _].
    destruct (e_add_spec a b Ha Hb) as (d & F & D & _ & WS). rewrite F in E. injection E as <-.
    rewrite den_afd by auto using xadd_xok.
    rewrite (den_lin a Ha), (den_lin b Hb), (WS denote denote_respects'), (xadd_val _ _ Xa Xb).
    destruct (qval (lconst a)), (qval (lconst b)), (wsum denote (lterms a)), (wsum denote (lterms b)).
    qi_unfold. split; ring.
  Qed.

End Denote.
