(* Exact numbers (Integer, Rational, Complex in normal form) as coefficients and exponents of the
   arithmetic model: totality, normal forms and the ring laws of num_add / num_mul as EQUALITIES of
   the model's results (from the Q(i) semantics of Num/NumC05.v and the uniqueness of normal forms, Num/NumC05U.v). *)
From SE Require Export Expr.ArithGuards.
From SE Require Import Num.NumSpec Num.NumQ Num.NumQi Num.NumC05 Num.NumC05U Expr.CmpProofs.
From Coq Require Import QArith Lia ZArith Setoid Morphisms.
Local Open Scope Z_scope.

Lemma xok_exact : forall n, xok n = true -> num_is_exact n = true.
Proof. intros n H. apply andb_prop in H. apply H. Qed.
Lemma xok_nwf : forall n, xok n = true -> NumModel.num_wf n = true.
Proof. intros n H. apply andb_prop in H. apply H. Qed.

Lemma xok_val : forall n, xok n = true -> exists v, valQi n = Some v.
Proof.
  intros n H. apply xok_exact in H. destruct n; cbn in H; try discriminate; cbn [valQi]; eauto.
Qed.

(* the two statements of "normal form" (NumModel.num_wf, Wf.num_wf) agree on exact numbers *)
Lemma xok_wf : forall n, xok n = true -> Wf.num_wf n = true.
Proof.
  intros n H. apply andb_prop in H. destruct H as [E W].
  destruct n; cbn in E; try discriminate; cbn [NumModel.num_wf Wf.num_wf] in *.
  - reflexivity.
  - apply andb_prop in W. destruct W as [W1 W2]. unfold q_lowest in W1.
    rewrite W1. cbn [andb]. apply Z.ltb_lt. apply negb_true_iff in W2. apply Pos.eqb_neq in W2. lia.
  - apply andb_prop in W. destruct W as [W W3]. apply andb_prop in W. destruct W as [W1 W2].
    unfold q_lowest in *. rewrite W1, W2, W3. reflexivity.
Qed.
Lemma wf_xok : forall n, num_is_exact n = true -> Wf.num_wf n = true -> xok n = true.
Proof.
  intros n E W. unfold xok. rewrite E. cbn [andb].
  destruct n; cbn in E; try discriminate; cbn [NumModel.num_wf Wf.num_wf] in *.
  - reflexivity.
  - apply andb_prop in W. destruct W as [W1 W2]. unfold q_lowest. rewrite W1. cbn [andb].
    apply negb_true_iff. apply Pos.eqb_neq. apply Z.ltb_lt in W2. lia.
  - exact W.
Qed.
Lemma xok_wf_expr : forall n, xok n = true -> wf (ENum n) = true.
Proof. intros. rewrite wf_num. now apply xok_wf. Qed.

Lemma xok_rat_low : forall n d, xok (NRat n d) = true -> qlow (Qmake n d) /\ d <> 1%positive.
Proof.
  intros n d H. apply xok_nwf in H. cbn [NumModel.num_wf] in H. apply andb_prop in H. destruct H as [H1 H2].
  split; [now apply q_lowest_iff|]. apply negb_true_iff in H2. now apply Pos.eqb_neq.
Qed.
Lemma xok_cplx_low : forall a b c d, xok (NCplx a b c d) = true ->
  qlow (Qmake a b) /\ qlow (Qmake c d) /\ c <> 0.
Proof. intros a b c d H. apply xok_nwf in H. now apply wf_cplx. Qed.

Lemma val_inj : forall a b x y, xok a = true -> xok b = true ->
  valQi a = Some x -> valQi b = Some y -> qi_eq x y -> a = b.
Proof. intros a b x y Ha Hb. apply exact_normal_form_unique; now apply xok_nwf. Qed.

(* the value as a total function on exact numbers *)
Definition qval (n : number) : qi := match valQi n with Some v => v | None => qi_zero end.
Lemma qval_some : forall n, xok n = true -> valQi n = Some (qval n).
Proof. intros n H. destruct (xok_val n H) as [v E]. unfold qval. now rewrite E. Qed.

Lemma qval_inj : forall a b, xok a = true -> xok b = true -> qi_eq (qval a) (qval b) -> a = b.
Proof. intros a b Ha Hb E. eapply val_inj; eauto using qval_some. Qed.

(* exact numbers under [xok] are the normal forms of NumC05U: a is THE normal form of its value *)
Lemma xok_nf : forall a, xok a = true -> nf a (qval a).
Proof.
  intros a H. split; [now apply xok_nwf|]. exists (qval a). split; [now apply qval_some | reflexivity].
Qed.
Lemma nf_xok : forall r v, nf r v -> xok r = true /\ qi_eq (qval r) v.
Proof.
  intros r v [W (z & V & E)]. split.
  - unfold xok. now rewrite (valQi_exact r z V), W.
  - unfold qval. now rewrite V.
Qed.

Lemma num_add_x : forall a b, xok a = true -> xok b = true ->
  exists r, num_add a b = Ok r /\ xok r = true /\ qi_eq (qval r) (qi_add (qval a) (qval b)).
Proof.
  intros a b Ha Hb. destruct (nf_add _ _ _ _ (xok_nf a Ha) (xok_nf b Hb)) as (r & E & N).
  exists r. split; [exact E | now apply nf_xok].
Qed.
Lemma num_mul_x : forall a b, xok a = true -> xok b = true ->
  exists r, num_mul a b = Ok r /\ xok r = true /\ qi_eq (qval r) (qi_mul (qval a) (qval b)).
Proof.
  intros a b Ha Hb. destruct (nf_mul _ _ _ _ (xok_nf a Ha) (xok_nf b Hb)) as (r & E & N).
  exists r. split; [exact E | now apply nf_xok].
Qed.

(* total versions *)
Definition xadd (a b : number) : number := match num_add a b with Ok r => r | _ => NInt 0 end.
Definition xmul (a b : number) : number := match num_mul a b with Ok r => r | _ => NInt 0 end.

Lemma xadd_spec : forall a b, xok a = true -> xok b = true ->
  num_add a b = Ok (xadd a b) /\ xok (xadd a b) = true /\ qi_eq (qval (xadd a b)) (qi_add (qval a) (qval b)).
Proof. intros a b Ha Hb. destruct (num_add_x a b Ha Hb) as (r & E & X & V). unfold xadd. rewrite E. auto. Qed.
Lemma xmul_spec : forall a b, xok a = true -> xok b = true ->
  num_mul a b = Ok (xmul a b) /\ xok (xmul a b) = true /\ qi_eq (qval (xmul a b)) (qi_mul (qval a) (qval b)).
Proof. intros a b Ha Hb. destruct (num_mul_x a b Ha Hb) as (r & E & X & V). unfold xmul. rewrite E. auto. Qed.

Lemma num_add_ok : forall a b, xok a = true -> xok b = true -> num_add a b = Ok (xadd a b).
Proof. intros. now apply xadd_spec. Qed.
Lemma num_mul_ok : forall a b, xok a = true -> xok b = true -> num_mul a b = Ok (xmul a b).
Proof. intros. now apply xmul_spec. Qed.
Lemma xadd_xok : forall a b, xok a = true -> xok b = true -> xok (xadd a b) = true.
Proof. intros. now apply xadd_spec. Qed.
Lemma xmul_xok : forall a b, xok a = true -> xok b = true -> xok (xmul a b) = true.
Proof. intros. now apply xmul_spec. Qed.
Lemma xadd_val : forall a b, xok a = true -> xok b = true -> qi_eq (qval (xadd a b)) (qi_add (qval a) (qval b)).
Proof. intros. now apply xadd_spec. Qed.
Lemma xmul_val : forall a b, xok a = true -> xok b = true -> qi_eq (qval (xmul a b)) (qi_mul (qval a) (qval b)).
Proof. intros. now apply xmul_spec. Qed.

(* identities of Q(i) in the shapes in which the dictionary proofs meet them *)
Lemma qi_mul_add_distr_r : forall x y z, qi_eq (qi_mul (qi_add y z) x) (qi_add (qi_mul y x) (qi_mul z x)).
Proof. intros [a b] [c d] [e f]. qi_unfold. split; ring. Qed.

Lemma qi_rearr_set : forall a b c d e, qi_eq (qi_add b c) e ->
  qi_eq (qi_add a (qi_add e d)) (qi_add (qi_add a (qi_add b d)) c).
Proof.
  intros [a1 a2] [b1 b2] [c1 c2] [d1 d2] [e1 e2] [H1 H2]. qi_unfold. split; [rewrite <- H1 | rewrite <- H2]; ring.
Qed.
Lemma qi_rearr_erase : forall a b c d, qi_eq (qi_add b c) qi_zero ->
  qi_eq (qi_add a d) (qi_add (qi_add a (qi_add b d)) c).
Proof.
  intros [a1 a2] [b1 b2] [c1 c2] [d1 d2] [H1 H2]. qi_unfold. split.
  - transitivity (a1 + d1 + (b1 + c1))%Q; [rewrite H1|]; ring.
  - transitivity (a2 + d2 + (b2 + c2))%Q; [rewrite H2|]; ring.
Qed.

Lemma qi_mul_add_r : forall v c x, qi_eq (qi_add (qi_mul v x) (qi_mul c x)) (qi_mul (qi_add v c) x).
Proof. intros [a b] [c d] [e f]. qi_unfold. split; ring. Qed.
Lemma qi_mul_zero_l : forall v x, qi_eq v qi_zero -> qi_eq (qi_mul v x) qi_zero.
Proof. intros [a b] [e f] [H1 H2]. qi_unfold. rewrite H1, H2. split; ring. Qed.

(* laws as equalities of model results *)
Lemma xadd_comm : forall a b, xok a = true -> xok b = true -> xadd a b = xadd b a.
Proof.
  intros a b Ha Hb. apply qval_inj; auto using xadd_xok. rewrite !xadd_val by assumption. apply qi_add_comm.
Qed.
Lemma xadd_assoc : forall a b c, xok a = true -> xok b = true -> xok c = true ->
  xadd a (xadd b c) = xadd (xadd a b) c.
Proof.
  intros a b c Ha Hb Hc. apply qval_inj; auto using xadd_xok.
  rewrite !xadd_val by auto using xadd_xok. apply qi_add_assoc.
Qed.
Lemma xmul_comm : forall a b, xok a = true -> xok b = true -> xmul a b = xmul b a.
Proof.
  intros a b Ha Hb. apply qval_inj; auto using xmul_xok. rewrite !xmul_val by assumption. apply qi_mul_comm.
Qed.
Lemma xmul_assoc : forall a b c, xok a = true -> xok b = true -> xok c = true ->
  xmul a (xmul b c) = xmul (xmul a b) c.
Proof.
  intros a b c Ha Hb Hc. apply qval_inj; auto using xmul_xok.
  rewrite !xmul_val by auto using xmul_xok. apply qi_mul_assoc.
Qed.

Lemma xok_int : forall z, xok (NInt z) = true.
Proof. reflexivity. Qed.
Lemma qval_int : forall z, qval (NInt z) = (inject_Z z, 0%Q).
Proof. reflexivity. Qed.

Lemma xadd_0_l : forall a, xok a = true -> xadd (NInt 0) a = a.
Proof.
  intros a Ha. apply qval_inj; auto using xadd_xok, xok_int. rewrite xadd_val by auto using xok_int. apply qi_add_0_l.
Qed.
Lemma xadd_0_r : forall a, xok a = true -> xadd a (NInt 0) = a.
Proof. intros a Ha. rewrite xadd_comm by auto using xok_int. now apply xadd_0_l. Qed.
Lemma xmul_1_l : forall a, xok a = true -> xmul (NInt 1) a = a.
Proof.
  intros a Ha. apply qval_inj; auto using xmul_xok, xok_int. rewrite xmul_val by auto using xok_int. apply qi_mul_1_l.
Qed.
Lemma xmul_1_r : forall a, xok a = true -> xmul a (NInt 1) = a.
Proof. intros a Ha. rewrite xmul_comm by auto using xok_int. now apply xmul_1_l. Qed.
Lemma xmul_add_distr_l : forall a b c, xok a = true -> xok b = true -> xok c = true ->
  xmul a (xadd b c) = xadd (xmul a b) (xmul a c).
Proof.
  intros a b c Ha Hb Hc. apply qval_inj; auto using xadd_xok, xmul_xok.
  rewrite xmul_val, !xadd_val, !xmul_val by auto using xadd_xok, xmul_xok. apply qi_mul_add_distr_l.
Qed.

Lemma is_zero_val : forall a, xok a = true -> (num_is_zero a = true <-> qi_is_zero (qval a)).
Proof.
  intros a Ha. unfold qi_is_zero, qi_eq, qi_zero.
  destruct a as [z|n d|a1 a2 a3 a4| | | | ]; try discriminate Ha; cbn [num_is_zero qval valQi fst snd].
  - rewrite Z.eqb_eq. unfold Qeq. cbn. split; [intros ->; split; reflexivity| intros [H _]; lia].
  - rewrite Z.eqb_eq. unfold Qeq. cbn. split; [intros ->; split; reflexivity| intros [H _]; lia].
  - destruct (xok_cplx_low _ _ _ _ Ha) as (_ & _ & NZ). split; [discriminate|].
    intros [_ H]. unfold Qeq in H. cbn in H. lia.
Qed.
Lemma is_zero_eq : forall a, xok a = true -> num_is_zero a = true -> a = NInt 0.
Proof.
  intros a Ha Z. apply qval_inj; auto. apply is_zero_val in Z; auto.
Qed.
Lemma is_zero_int0 : num_is_zero (NInt 0) = true. Proof. reflexivity. Qed.

Lemma is_one_eq : forall a, xok a = true -> num_is_one a = true -> a = NInt 1.
Proof.
  intros a Ha O. destruct a as [z|n d|a1 a2 a3 a4| | | | ]; try discriminate O; cbn [num_is_one] in O.
  - apply Z.eqb_eq in O. now subst.
  - exfalso. destruct (xok_rat_low _ _ Ha) as [_ D]. unfold q_eqb in O. cbn [Qnum Qden] in O.
    apply andb_prop in O. destruct O as [_ O]. apply Pos.eqb_eq in O. contradiction.
Qed.

(* C++ eq on two exact normal forms is structural equality *)
Lemma cmp_num_eqb_eq : forall a b, xok a = true -> xok b = true ->
  SE.Expr.Cmp.num_eqb a b = true -> a = b.
Proof.
  intros a b Ha Hb E. apply qval_inj; auto.
  destruct a as [za|na da|a1 a2 a3 a4| | | | ]; try discriminate Ha;
  destruct b as [zb|nb db|b1 b2 b3 b4| | | | ]; try discriminate Hb; cbn in E; try discriminate E;
  unfold qval; cbn [valQi]; unfold qi_eq; cbn [fst snd].
  - apply Z.eqb_eq in E. subst. split; reflexivity.
  - unfold Qeq_pair in E. apply Z.eqb_eq in E. split; [unfold Qeq; cbn; exact E | reflexivity].
  - apply andb_prop in E. destruct E as [E1 E2]. unfold Qeq_pair in *. apply Z.eqb_eq in E1, E2.
    split; unfold Qeq; cbn; assumption.
Qed.
Lemma cmp_num_eqb_refl : forall a, xok a = true -> SE.Expr.Cmp.num_eqb a a = true.
Proof. intros a Ha. apply num_eqb_refl. now apply xok_wf. Qed.

Lemma num_neq_int_1 : forall c, xok c = true -> num_neq_int c 1 = false -> c = NInt 1.
Proof.
  intros c Hc H. unfold num_neq_int in H. apply negb_false_iff in H.
  apply cmp_num_eqb_eq; auto.
Qed.
