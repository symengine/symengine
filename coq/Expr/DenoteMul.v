(* C07 -- value preservation of mul on the rational-function fragment: integer exponents of either
   sign; a valuation must keep every base with a negative exponent away from zero ([dfn]). *)
From SE Require Export Expr.Denote Expr.ArithMulProofs.
From SE Require Import Num.NumSpec Num.NumQi Num.NumC05 Expr.CmpProofs.
From Coq Require Import QArith Lia Permutation Setoid Morphisms.
Local Open Scope Z_scope.

Lemma qi_inv_l : forall x, ~ qi_is_zero x -> qi_eq (qi_mul (qi_inv x) x) qi_one.
Proof. intros x H. unfold qi_inv. now apply qi_div_mul. Qed.

Lemma qi_mul_cancel_r : forall u v x, ~ qi_is_zero x -> qi_eq (qi_mul u x) (qi_mul v x) -> qi_eq u v.
Proof.
  intros u v x H E.
  transitivity (qi_mul (qi_mul u x) (qi_inv x)).
  - rewrite <- qi_mul_assoc. rewrite (qi_mul_comm x (qi_inv x)), qi_inv_l by assumption. symmetry. apply qi_mul_1_r.
  - rewrite E. rewrite <- qi_mul_assoc. rewrite (qi_mul_comm x (qi_inv x)), qi_inv_l by assumption. apply qi_mul_1_r.
Qed.

Lemma powz_nat : forall x n, qi_eq (qi_powz x (Z.of_nat n)) (qi_pow_nat x n).
Proof.
  intros x [|n]; [reflexivity|]. cbn [Z.of_nat qi_powz]. now rewrite SuccNat2Pos.id_succ.
Qed.

Lemma powz_succ : forall x z, ~ qi_is_zero x -> qi_eq (qi_powz x (z + 1)) (qi_mul (qi_powz x z) x).
Proof.
  intros x z NZ. destruct z as [|p|p].
  - change (0 + 1) with 1. rewrite qi_powz_1. cbn [qi_powz]. symmetry. apply qi_mul_1_l.
  - replace (Zpos p + 1) with (Z.of_nat (Pos.to_nat p + 1)) by lia.
    rewrite powz_nat, qi_pow_nat_add. cbn [qi_powz qi_pow_nat]. apply qi_mul_proper; [reflexivity | apply qi_mul_1_r].
  - destruct (Pos.eq_dec p 1) as [->|NE].
    + change (Z.neg 1 + 1) with 0. cbn [qi_powz]. change (Pos.to_nat 1) with 1%nat. cbn [qi_pow_nat].
      symmetry. etransitivity; [apply qi_mul_proper; [apply qi_inv_proper; apply qi_mul_1_r | reflexivity]|].
      now apply qi_inv_l.
    + assert (E : Zneg p + 1 = Zneg (p - 1)) by lia. rewrite E. cbn [qi_powz].
      assert (N : Pos.to_nat p = S (Pos.to_nat (p - 1))) by lia. rewrite N. cbn [qi_pow_nat].
      set (y := qi_pow_nat x (Pos.to_nat (p - 1))).
      assert (NY : ~ qi_is_zero y) by (now apply qi_pow_nat_nonzero).
      rewrite qi_inv_mul by assumption.
      rewrite (qi_mul_comm (qi_inv x) (qi_inv y)). rewrite <- qi_mul_assoc. rewrite qi_inv_l by assumption.
      symmetry. apply qi_mul_1_r.
Qed.

Lemma powz_add_nz : forall x a b, ~ qi_is_zero x -> qi_eq (qi_powz x (a + b)) (qi_mul (qi_powz x a) (qi_powz x b)).
Proof.
  intros x a b NZ. revert b. apply Z.peano_ind.
  - rewrite Z.add_0_r. cbn [qi_powz]. symmetry. apply qi_mul_1_r.
  - intros b IH. replace (a + Z.succ b) with ((a + b) + 1) by lia. replace (Z.succ b) with (b + 1) by lia.
    rewrite !powz_succ by assumption. rewrite IH. symmetry. apply qi_mul_assoc.
  - intros b IH. apply (qi_mul_cancel_r _ _ x NZ).
    rewrite <- powz_succ by assumption. replace (a + Z.pred b + 1) with (a + b) by lia. rewrite IH.
    rewrite <- qi_mul_assoc. rewrite <- powz_succ by assumption. replace (Z.pred b + 1) with b by lia. reflexivity.
Qed.

Lemma powz_add_nonneg : forall x a b, 0 <= a -> 0 <= b -> qi_eq (qi_powz x (a + b)) (qi_mul (qi_powz x a) (qi_powz x b)).
Proof.
  intros x a b Ha Hb. rewrite <- (Z2Nat.id a Ha), <- (Z2Nat.id b Hb). rewrite <- Nat2Z.inj_add.
  rewrite !powz_nat. apply qi_pow_nat_add.
Qed.

Lemma qi_zerob_spec : forall v, qi_zerob v = false -> ~ qi_is_zero v.
Proof.
  intros [a b] H [E1 E2]. unfold qi_zerob in H. cbn [fst snd] in *.
  apply Qeq_bool_iff in E1, E2. cbn in E1, E2. rewrite E1, E2 in H. discriminate.
Qed.

(* x^a * x^b = x^(a+b) when both powers are defined *)
Lemma powz_add_dfn : forall x a b, ((0 <=? a) || negb (qi_zerob x)) = true -> ((0 <=? b) || negb (qi_zerob x)) = true ->
  qi_eq (qi_powz x (a + b)) (qi_mul (qi_powz x a) (qi_powz x b)).
Proof.
  intros x a b Ha Hb. destruct (qi_zerob x) eqn:Z.
  - rewrite orb_false_r in Ha, Hb. apply Z.leb_le in Ha, Hb. now apply powz_add_nonneg.
  - apply powz_add_nz. now apply qi_zerob_spec.
Qed.

Lemma qi_zerob_proper : forall x y, qi_eq x y -> qi_zerob x = qi_zerob y.
Proof.
  intros [a b] [c d] [E1 E2]. unfold qi_zerob. cbn [fst snd] in *.
  assert (H : forall u v, (u == v)%Q -> Qeq_bool u 0 = Qeq_bool v 0).
  { intros u v E. destruct (Qeq_bool u 0) eqn:A; destruct (Qeq_bool v 0) eqn:B; try reflexivity.
    - apply Qeq_bool_iff in A. rewrite E in A. apply Qeq_bool_iff in A. congruence.
    - apply Qeq_bool_iff in B. rewrite <- E in B. apply Qeq_bool_iff in B. congruence. }
  now rewrite (H a c E1), (H b d E2).
Qed.

Section MulSound.
  Variable rho : list N -> qi.
  Variable rhoc : list N -> qi.
  Notation den := (denote rho rhoc).
  Notation wp := (wprod rho rhoc).

  Definition ddfn (d : mdict) : bool := forallb (fun p => pow_dfn (den (fst p)) (snd p)) d.

  Lemma wp_app : forall d1 d2, qi_eq (wp (d1 ++ d2)) (qi_mul (wp d1) (wp d2)).
  Proof.
    induction d1 as [|p d1 IH]; intros d2; unfold wprod in *; cbn [app fold_right].
    - symmetry. apply qi_mul_1_l.
    - rewrite IH. apply qi_mul_assoc.
  Qed.
  Lemma wp_cons : forall p d, wp (p :: d) = qi_mul (qpow (den (fst p)) (snd p)) (wp d).
  Proof. reflexivity. Qed.
  Lemma ddfn_app : forall d1 d2, ddfn (d1 ++ d2) = ddfn d1 && ddfn d2.
  Proof. intros. unfold ddfn. apply forallb_app. Qed.

  Lemma pow_dfn_int : forall v e, pow_dfn v e = true -> exists z, e = ENum (NInt z) /\ ((0 <=? z) || negb (qi_zerob v)) = true.
  Proof. intros v e H. destruct e as [[z| | | | | | ]| | | | | | | | | | | | | | | | | ]; try discriminate H. eauto. Qed.

  Lemma xadd_int : forall a b, xadd (NInt a) (NInt b) = NInt (a + b).
  Proof. reflexivity. Qed.

  Lemma rearr3 : forall a p q b, qi_eq (qi_mul (qi_mul a (qi_mul p b)) q) (qi_mul a (qi_mul (qi_mul p q) b)).
  Proof. intros [a1 a2] [p1 p2] [q1 q2] [b1 b2]. qi_unfold. split; ring. Qed.

  Lemma dstep_value : forall d t z, mentries_ok d = true -> atom_ok t = true -> qexp_ok (NInt z) = true ->
    ddfn d = true -> pow_dfn (den t) (ENum (NInt z)) = true ->
    qi_eq (wp (dstep d (t, ENum (NInt z)))) (qi_mul (wp d) (qpow (den t) (ENum (NInt z)))) /\
    ddfn (dstep d (t, ENum (NInt z))) = true.
  Proof.
    intros d t z D T Q DD PT. destruct (atom_ok_inv _ T) as (Wt & _ & _).
    destruct (dstep_cases d t (NInt z) D T) as [d1 d2 -> _ _ | d1 k vn d2 -> Tk _ EQ];
      rewrite ddfn_app in DD; apply andb_prop in DD; destruct DD as [DD1 DD2].
    - split.
      + rewrite !wp_app, wp_cons. cbn [fst snd].
        destruct (wp d1), (wp d2), (qpow (den t) (ENum (NInt z))). qi_unfold. split; ring.
      + rewrite ddfn_app. cbn [ddfn forallb fst snd]. fold (ddfn d2). now rewrite DD1, DD2, PT.
    - destruct (atom_ok_inv _ Tk) as (Wk & _ & _).
      pose proof (denote_respects rho rhoc k t Wk Wt EQ) as DE.
      cbn [ddfn forallb fst snd] in DD2. apply andb_prop in DD2. destruct DD2 as [PK DD2]. fold (ddfn d2) in DD2.
      destruct (pow_dfn_int _ _ PK) as (zv & Ev & PK'). injection Ev as ->.
      cbn [pow_dfn] in PT. rewrite <- (qi_zerob_proper _ _ DE) in PT.
      rewrite xadd_int. cbn [num_is_zero].
      pose proof (powz_add_dfn (den k) zv z PK' PT) as PA.
      destruct (zv + z =? 0) eqn:Z0.
      + split; [|rewrite ddfn_app; now rewrite DD1, DD2].
        rewrite !wp_app, wp_cons. cbn [fst snd qpow]. apply Z.eqb_eq in Z0. rewrite Z0 in PA. cbn [qi_powz] in PA.
        rewrite <- DE. rewrite rearr3. rewrite <- PA. apply qi_mul_proper; [reflexivity | symmetry; apply qi_mul_1_l].
      + split.
        * rewrite !wp_app, !wp_cons. cbn [fst snd qpow]. rewrite <- DE. rewrite rearr3. rewrite <- PA. reflexivity.
        * rewrite ddfn_app. cbn [ddfn forallb fst snd pow_dfn]. fold (ddfn d2). rewrite DD1, DD2, andb_true_r. cbn [andb].
          destruct (qi_zerob (den k)); [|apply orb_true_r]. rewrite orb_false_r in *. apply Z.leb_le in PK', PT. apply Z.leb_le. lia.
  Qed.

  Lemma dmerge_value : forall l d, mentries_ok d = true -> mentries_ok l = true -> ddfn d = true -> ddfn l = true ->
    qi_eq (wp (dmerge d l)) (qi_mul (wp d) (wp l)) /\ ddfn (dmerge d l) = true.
  Proof.
    unfold dmerge. induction l as [|[t v] l IH]; intros d D L DD DL; cbn [fold_left].
    - split; [symmetry; apply qi_mul_1_r | exact DD].
    - apply mentries_cons_inv in L. destruct L as (q & -> & T & Q & L).
      cbn [ddfn forallb fst snd] in DL. apply andb_prop in DL. destruct DL as [PT DL]. fold (ddfn l) in DL.
      destruct (pow_dfn_int _ _ PT) as (z & Ez & _). injection Ez as ->.
      destruct (dstep_value d t z D T Q DD PT) as [V1 D1].
      destruct (IH (dstep d (t, ENum (NInt z)))) as [V2 D2]; auto using dstep_entries.
      split; [|exact D2]. rewrite V2, V1, wp_cons. cbn [fst snd]. symmetry. apply qi_mul_assoc.
  Qed.

  (* the value of Mul::from_dict *)
  Lemma den_mfd : forall c d, xok c = true -> qi_eq (den (mul_from_dict c d)) (qi_mul (wp d) (qval c)).
  Proof.
    intros c d Xc.
    assert (MUL : qi_eq (den (EMul c d)) (qi_mul (wp d) (qval c))) by apply denote_EMul'.
    destruct (num_is_zero c) eqn:Zc.
    - unfold mul_from_dict. rewrite Zc. cbn [denote]. apply (is_zero_val c Xc) in Zc. unfold qi_is_zero in Zc.
      rewrite Zc. destruct (wp d). qi_unfold. split; ring.
    - destruct (num_is_one c) eqn:Oc.
      + rewrite (is_one_eq c Xc Oc). rewrite den_mul_from_dict_1. rewrite qval_int. symmetry. apply qi_mul_1_r.
      + unfold mul_from_dict. rewrite Zc.
        destruct d as [|[k v] [|p2 d]]; [cbn [denote]; unfold wprod; cbn [fold_right]; symmetry; apply qi_mul_1_l | | exact MUL].
        rewrite Oc. destruct v as [[z| | | | | | ]| | | | | | | | | | | | | | | | | ]; exact MUL.
  Qed.

  Lemma den_mlin : forall s x, mul_operand_ok_gen s x = true -> qi_eq (den x) (qi_mul (wp (mterms x)) (qval (mconst x))).
  Proof.
    intros s x H. unfold mterms, mconst.
    assert (ATOM : is_atom x = true -> qi_eq (den x) (qi_mul (wp [(x, e_one)]) (qval (NInt 1)))).
    { intros _. unfold wprod. cbn [fold_right fst snd qpow e_one e_int]. rewrite qi_powz_1, qval_int, !qi_mul_1_r. reflexivity. }
    destruct x; cbn [mlin fst snd]; try (apply ATOM; reflexivity).
    - cbn [denote]. unfold wprod. cbn [fold_right]. symmetry. apply qi_mul_1_l.
    - apply denote_EMul'.
    - cbn [denote]. unfold wprod. cbn [fold_right fst snd]. rewrite qval_int, !qi_mul_1_r. reflexivity.
  Qed.

  Definition mul_dfn (x : expr) : bool := ddfn (mterms x).

  Lemma mterms_atom : forall k, atom_ok k = true -> mterms k = [(k, e_one)].
  Proof. intros k H. destruct (atom_ok_inv _ H) as (_ & _ & A). destruct k; try discriminate A; reflexivity. Qed.

  Lemma mfd_dfn : forall c d, mentries_ok d = true -> ddfn d = true -> ddfn (mterms (mul_from_dict c d)) = true.
  Proof.
    intros c d D DD. destruct (mfd_cases c d D) as [_ | k Zc Oc -> T | k n Zc Oc -> T Q NE | Zc NE H];
      [reflexivity | now rewrite (mterms_atom k T) | exact DD | exact DD].
  Qed.

  (* C07: mul(a, b) has the value of a times the value of b *)
  Theorem mul_sound : forall fuel a b r, mul_operand_ok a = true -> mul_operand_ok b = true ->
    mul_dfn a = true -> mul_dfn b = true -> e_mul fuel a b = Ok r ->
    qi_eq (den r) (qi_mul (den a) (den b)) /\ mul_dfn r = true.
  Proof.
    intros fuel a b r Ha Hb Da Db E.
    destruct (e_mul_spec fuel a b Ha Hb) as (X & Y & E' & XY).
    pose proof (e_mul_det _ _ _ _ _ _ E E') as ->.
    destruct (mul_operand_ok_terms _ a Ha) as [Xa Ta]. destruct (mul_operand_ok_terms _ b Hb) as [Xb Tb].
    unfold mul_dfn in Da, Db.
    assert (V : qi_eq (wp (dmerge X Y)) (qi_mul (wp (mterms a)) (wp (mterms b))) /\ ddfn (dmerge X Y) = true /\ mentries_ok (dmerge X Y) = true).
    { destruct XY as [[-> ->]|[[-> ->]|[-> ->]]].
      - destruct (dmerge_value (mterms b) (mterms a)) as [V D]; auto using dmerge_entries.
      - destruct (dmerge_value (mterms a) (mterms b)) as [V D]; auto. split; [rewrite V; apply qi_mul_comm | split; auto using dmerge_entries].
      - destruct (dmerge_value (mterms a) []) as [V0 D0]; auto.
        destruct (dmerge_value (mterms b) (dmerge [] (mterms a))) as [V D]; auto using dmerge_entries.
        split; [|split; [exact D | apply dmerge_entries; auto; apply dmerge_entries; auto]].
        rewrite V, V0. apply qi_mul_proper; [|reflexivity]. unfold wprod at 1. cbn [fold_right]. apply qi_mul_1_l. }
    destruct V as (V & DD & DE). split.
    - rewrite den_mfd by auto using xmul_xok. rewrite V, (xmul_val _ _ Xa Xb).
      rewrite (den_mlin _ a Ha), (den_mlin _ b Hb).
      destruct (wp (mterms a)), (wp (mterms b)), (qval (mconst a)), (qval (mconst b)). qi_unfold. split; ring.
    - unfold mul_dfn. now apply mfd_dfn.
  Qed.

  (* neg(a) = mul(-1, a) *)
  Theorem neg_sound : forall fuel a r, mul_operand_ok a = true -> mul_dfn a = true -> e_neg fuel a = Ok r ->
    qi_eq (den r) (qi_opp (den a)).
  Proof.
    intros fuel a r Ha Da E. unfold e_neg in E.
    destruct (mul_sound fuel e_minus_one a r eq_refl Ha eq_refl Da E) as [V _]. rewrite V.
    cbn [denote e_minus_one e_int]. rewrite qval_int. destruct (den a). qi_unfold. split; ring.
  Qed.
End MulSound.
