(* RCPBasicKeyLess on a set of expressions where compare is a strict total order modulo eq, and
   its consequences for the sorted dictionaries used by Add::compare. *)
From SE Require Export Expr.CmpLists.
From Coq Require Import Lia Permutation.
Local Open Scope Z_scope.

Notation kl := (keyless expr_eqb expr_cmp).

Section Keyless.
  Variable P : expr -> Prop.
  Hypothesis P_wf : forall x, P x -> wf x = true.
  Hypothesis HR : forall x y, in_range (expr_cmp x y).
  Hypothesis HA : forall x y, P x -> P y -> expr_cmp x y = - expr_cmp y x.
  Hypothesis HE : forall x y, P x -> P y -> (expr_cmp x y = 0 <-> expr_eqb x y = true).
  Hypothesis HT : forall x y z, P x -> P y -> P z -> FT expr_cmp x y z.

  Lemma Peq_refl : forall x, P x -> expr_eqb x x = true.
  Proof using P_wf. intros. apply expr_eqb_refl; auto. Qed.
  Lemma Peq_sym : forall x y, P x -> P y -> expr_eqb x y = true -> expr_eqb y x = true.
  Proof using P_wf. intros. apply expr_eqb_sym; auto. Qed.
  Lemma Peq_trans : forall x y z, P x -> P y -> P z ->
    expr_eqb x y = true -> expr_eqb y z = true -> expr_eqb x z = true.
  Proof using P_wf. intros x y z ? ? ?. apply expr_eqb_trans; auto. Qed.
  Lemma Peq_hash : forall x y, P x -> P y -> expr_eqb x y = true -> hash x = hash y.
  Proof using P_wf. intros. apply hash_respects_eq; auto. Qed.

  Lemma kl_eq_false : forall x y, P x -> P y -> expr_eqb x y = true -> kl x y = false.
  Proof using P_wf.
    intros x y Px Py E. unfold keyless. rewrite (Peq_hash x y Px Py E), N.eqb_refl, E. reflexivity.
  Qed.

  Lemma kl_irrefl : forall x, P x -> kl x x = false.
  Proof using P_wf. intros. apply kl_eq_false; auto. apply Peq_refl; auto. Qed.

  Lemma kl_total : forall x y, P x -> P y -> kl x y = false -> kl y x = false -> expr_eqb x y = true.
  Proof using HA HE HR HT P_wf.
    intros x y Px Py. unfold keyless. rewrite (N.eqb_sym (hash y) (hash x)).
    pose proof (HA x y Px Py). pose proof (HE x y Px Py) as E. pose proof (HR x y) as R.
    unfold in_range in R.
    destruct (hash x =? hash y)%N eqn:Hh; cbn [negb].
    - destruct (expr_eqb x y) eqn:E1; [reflexivity|].
      destruct (expr_eqb y x) eqn:E2; [apply Peq_sym in E2; auto; congruence|].
      intros A B. exfalso. assert (expr_cmp x y = 0) by lia. apply E in H0. discriminate.
    - intros A B. exfalso. lia.
  Qed.

  Lemma kl_asym : forall x y, P x -> P y -> kl x y = true -> kl y x = false.
  Proof using HA HE HR HT P_wf.
    intros x y Px Py. unfold keyless. rewrite (N.eqb_sym (hash y) (hash x)).
    pose proof (HA x y Px Py).
    destruct (hash x =? hash y)%N eqn:Hh; cbn [negb].
    - destruct (expr_eqb x y) eqn:E1; [discriminate|].
      destruct (expr_eqb y x) eqn:E2; [reflexivity|]. lia.
    - lia.
  Qed.

  Lemma kl_trans : forall x y z, P x -> P y -> P z -> kl x y = true -> kl y z = true -> kl x z = true.
  Proof using HA HE HR HT P_wf.
    intros x y z Px Py Pz. unfold keyless.
    pose proof (HT x y z Px Py Pz) as [T1 _]. pose proof (HE x z Px Pz) as E.
    destruct (hash x =? hash y)%N eqn:H1; destruct (hash y =? hash z)%N eqn:H2;
      destruct (hash x =? hash z)%N eqn:H3; cbn [negb]; try lia.
    destruct (expr_eqb x y); [discriminate|]. destruct (expr_eqb y z); [discriminate|].
    intros A B. destruct (expr_eqb x z) eqn:E3.
    - exfalso. destruct E as [_ E]. specialize (E eq_refl). lia.
    - lia.
  Qed.

  Lemma kl_lt_E : forall x y z, P x -> P y -> P z ->
    kl x y = true -> expr_eqb y z = true -> kl x z = true.
  Proof using HA HE HR HT P_wf.
    intros x y z Px Py Pz L E.
    destruct (kl x z) eqn:A; [reflexivity|]. exfalso.
    destruct (kl z x) eqn:B.
    - (* z < x < y and y ~ z *)
      pose proof (kl_trans z x y Pz Px Py B L) as C.
      rewrite (kl_eq_false z y) in C; auto; [discriminate|]. apply Peq_sym; auto.
    - pose proof (kl_total x z Px Pz A B) as E2.
      rewrite (kl_eq_false x y) in L; auto; [discriminate|].
      apply (Peq_trans x z y); auto. apply Peq_sym; auto.
  Qed.

  Notation kok := (kok P).

  Lemma kok_nodup : forall d, kok d -> NoDup d.
  Proof using P_wf.
    induction d as [|p d IH]; intros OK; constructor.
    - intros Hin. pose proof (proj1 OK p (or_introl eq_refl)) as Pp.
      destruct OK as [_ NE]. cbn [map] in NE. apply pairwise_ne_cons in NE. destruct NE as [NE _].
      specialize (NE (fst p) (in_map fst d p Hin)). rewrite (Peq_refl (fst p) Pp) in NE. discriminate.
    - apply IH. eapply kok_tail; eassumption.
  Qed.

  Lemma kok_all_comparable : forall d, kok d -> all_comparable expr_eqb expr_cmp d.
  Proof using HA HE HR HT P_wf.
    intros d OK. split; [apply kok_nodup; exact OK|].
    intros p q Hp Hq Npq. unfold comparable.
    pose proof (proj1 OK p Hp) as Pp. pose proof (proj1 OK q Hq) as Pq.
    destruct (kl (fst p) (fst q)) eqn:A; [left; reflexivity|].
    destruct (kl (fst q) (fst p)) eqn:B; [right; reflexivity|].
    exfalso. apply Npq. apply (kok_unique P Peq_sym d); auto. apply kl_total; auto.
  Qed.

  Lemma pairwise_ne_cons_intro : forall x l,
    (forall y, In y l -> expr_eqb x y = false) -> pairwise_ne l = true -> pairwise_ne (x :: l) = true.
  Proof.
    intros x l H1 H2. cbn [pairwise_ne]. rewrite H2, andb_true_r. apply forallb_forall.
    intros y Hy. rewrite (H1 y Hy). reflexivity.
  Qed.

  Lemma pne_perm : forall l1 l2, Permutation l1 l2 -> (forall x, In x l1 -> P x) ->
    pairwise_ne l1 = true -> pairwise_ne l2 = true.
  Proof using P_wf.
    induction 1; intros K NE.
    - reflexivity.
    - apply pairwise_ne_cons in NE. destruct NE as [NE1 NE2]. apply pairwise_ne_cons_intro.
      + intros y Hy. apply NE1. eapply Permutation_in; [apply Permutation_sym; eassumption | exact Hy].
      + apply IHPermutation; auto. intros; apply K; right; assumption.
    - apply pairwise_ne_cons in NE. destruct NE as [NEy NE]. apply pairwise_ne_cons in NE. destruct NE as [NEx NE].
      apply pairwise_ne_cons_intro; [|apply pairwise_ne_cons_intro; [|exact NE]].
      + intros z [<-|Hz]; [|apply NEx; exact Hz].
        destruct (expr_eqb x y) eqn:E; [|reflexivity].
        apply Peq_sym in E; [| apply K; right; left; reflexivity | apply K; left; reflexivity].
        rewrite (NEy x) in E by (left; reflexivity). discriminate.
      + intros z Hz. apply NEy. right. exact Hz.
    - apply IHPermutation2; [|apply IHPermutation1; assumption].
      intros x Hx. apply K. eapply Permutation_in; [apply Permutation_sym; eassumption | exact Hx].
  Qed.

  Lemma kok_perm : forall d1 d2, Permutation d1 d2 -> kok d1 -> kok d2.
  Proof using P_wf.
    intros d1 d2 PM [K NE]. split.
    - intros p Hp. apply K. eapply Permutation_in; [apply Permutation_sym; exact PM | exact Hp].
    - apply (pne_perm (map fst d1) (map fst d2)); [apply Permutation_map; exact PM | | exact NE].
      intros x Hx. apply in_map_iff in Hx. destruct Hx as [p [<- Hp]]. apply K; exact Hp.
  Qed.

  Lemma kok_keysP : forall d, kok d -> keysP P d.
  Proof. intros d OK p Hp. apply (proj1 OK p Hp). Qed.

  Notation sortd := (map_of_umap expr_eqb expr_cmp).

  Lemma sortd_perm : forall d, kok d -> Permutation (sortd d) d.
  Proof using HA HE HR HT P_wf. intros. apply map_of_umap_perm. apply kok_all_comparable. assumption. Qed.
  Lemma sortd_sorted : forall d, kok d -> ssorted expr_eqb expr_cmp (sortd d).
  Proof using HA HE HR HT P_wf. intros. apply (map_of_umap_sorted expr_eqb expr_cmp P kl_trans). apply kok_keysP. assumption. Qed.
  Lemma sortd_keysP : forall d, kok d -> keysP P (sortd d).
  Proof using HA HE HR HT P_wf.
    intros d OK p Hp. apply (kok_keysP d OK). eapply Permutation_in; [apply sortd_perm; exact OK | exact Hp].
  Qed.
  Lemma sortd_nwf : forall d, dict_ok P d -> nwf (sortd d).
  Proof using HA HE HR HT P_wf.
    intros d OK p Hp. apply (proj1 OK p).
    eapply Permutation_in; [apply sortd_perm; apply dok_kok; exact OK | exact Hp].
  Qed.

  (* the sorted images of two dictionaries compare equal iff the dictionaries are eq *)
  Lemma sorted_eq_iff : forall d1 d2, dict_ok P d1 -> dict_ok P d2 -> length d1 = length d2 ->
    (numpairs_sized_cmp expr_cmp (sortd d1) (sortd d2) = 0 <-> umap_eqb expr_eqb d1 d2 = true).
  Proof using HA HE HR HT P_wf.
    intros d1 d2 OK1 OK2 L.
    rewrite (numpairs_sized_cmp_eq_iff expr_cmp expr_eqb);
      [ | apply sortd_nwf; assumption | apply sortd_nwf; assumption
        | intros p q Hp Hq; apply HE; [apply (sortd_keysP d1 (dok_kok P d1 OK1) p Hp) | apply (sortd_keysP d2 (dok_kok P d2 OK2) q Hq)] ].
    rewrite (umap_eqb_spec P Peq_sym Peq_trans Peq_hash d1 d2 OK1 OK2).
    pose proof (dok_kok P d1 OK1) as KK1. pose proof (dok_kok P d2 OK2) as KK2.
    pose proof (sortd_perm d1 KK1) as PM1. pose proof (sortd_perm d2 KK2) as PM2.
    split.
    - intros F. split; [exact L|]. intros p Hp.
      assert (Hp' : In p (sortd d1)) by (eapply Permutation_in; [apply Permutation_sym; exact PM1 | exact Hp]).
      destruct (Forall2_in_l _ _ _ _ F Hp') as [q [Hq [E1 E2]]].
      exists q. split; [eapply Permutation_in; [exact PM2 | exact Hq]|].
      split; [|exact E2]. apply Peq_sym; auto; [apply (sortd_keysP d1 KK1 p Hp') | apply (sortd_keysP d2 KK2 q Hq)].
    - intros [_ H12].
      assert (H21 : forall q, In q d2 -> exists p, In p d1 /\ entry_rel q p).
      { assert (U : umap_eqb expr_eqb d1 d2 = true)
          by (apply (umap_eqb_spec P Peq_sym Peq_trans Peq_hash d1 d2 OK1 OK2); auto).
        apply (umap_eqb_sym P Peq_sym Peq_trans Peq_hash d1 d2 OK1 OK2) in U.
        apply (umap_eqb_spec P Peq_sym Peq_trans Peq_hash d2 d1 OK2 OK1) in U. apply U. }
      apply (sorted_match expr_eqb expr_cmp P kl_asym (entry_eq expr_eqb) (fun x y => expr_eqb x y = true)).
      + intros p q [E _]. exact E.
      + exact Peq_sym.
      + exact Peq_trans.
      + exact kl_eq_false.
      + exact kl_lt_E.
      + apply sortd_keysP; assumption.
      + apply sortd_keysP; assumption.
      + apply sortd_sorted; assumption.
      + apply sortd_sorted; assumption.
      + intros p Hp.
        assert (Hp' : In p d1) by (eapply Permutation_in; [exact PM1 | exact Hp]).
        destruct (H12 p Hp') as [q [Hq [E1 E2]]].
        exists q. split; [eapply Permutation_in; [apply Permutation_sym; exact PM2 | exact Hq]|].
        split; [|exact E2]. apply Peq_sym; auto; [apply (proj1 OK2 q Hq) | apply (proj1 OK1 p Hp')].
      + intros q Hq.
        assert (Hq' : In q d2) by (eapply Permutation_in; [exact PM2 | exact Hq]).
        destruct (H21 q Hq') as [p [Hp [E1 E2]]].
        exists p. split; [eapply Permutation_in; [apply Permutation_sym; exact PM1 | exact Hp]|].
        split; [exact E1|]. rewrite num_eqb_sym. exact E2.
  Qed.

  (* the ordered container does not depend on the insertion order *)
  Lemma sortd_perm_eq : forall d1 d2, kok d1 -> kok d2 -> Permutation d1 d2 -> sortd d1 = sortd d2.
  Proof using HA HE HR HT P_wf.
    intros d1 d2 OK1 OK2 PM.
    apply (sorted_perm_unique expr_eqb expr_cmp P kl_asym).
    - apply sortd_keysP; assumption.
    - apply sortd_sorted; assumption.
    - apply sortd_sorted; assumption.
    - eapply perm_trans; [apply sortd_perm; exact OK1|].
      eapply perm_trans; [exact PM|]. apply Permutation_sym. apply sortd_perm; exact OK2.
  Qed.
End Keyless.
