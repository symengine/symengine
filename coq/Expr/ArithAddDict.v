(* Add's dictionary and Add::from_dict under the guard [adict_ok] (ArithGuards.v): what
   Add::dict_add_term computes, the shapes of Add::from_dict, its linear form, well-formedness and
   canonical form, and that it is determined up to eq by the coefficient sums of the keys. *)
From SE Require Export Expr.ArithDict.
From SE Require Import Num.NumSpec Num.NumQi Expr.CmpProofs.
From Coq Require Import QArith Lia Permutation Setoid Morphisms.
Local Open Scope Z_scope.

(* Add::dict_add_term *)
Definition keys_from (d' d : adict) (t : expr) : Prop :=
  forall p, In p d' -> (exists q, In q d /\ fst q = fst p) \/ fst p = t.

Lemma datm_spec : forall d c t, dinv d -> wf t = true -> xok c = true ->
  exists d', add_dict_add_term d c t = Ok d' /\ dinv d' /\
    (forall k, wf k = true -> qi_eq (coefsum d' k) (qi_add (coefsum d k) (contrib k (t, c)))) /\
    keys_from d' d t /\
    (forall phi, respects phi -> qi_eq (wsum phi d') (qi_add (wsum phi d) (qi_mul (qval c) (phi t)))).
Proof.
  intros d c t I Wt Xc.
  (* the statement about every functional [wsum phi] gives, at [key_ind k], the one about the coefficient sums *)
  enough (G : exists d', add_dict_add_term d c t = Ok d' /\ dinv d' /\ keys_from d' d t /\
            (forall phi, respects phi -> qi_eq (wsum phi d') (qi_add (wsum phi d) (qi_mul (qval c) (phi t))))).
  { destruct G as (d' & E & I' & K & WS). exists d'. split; [exact E|]. split; [exact I'|]. split; [|split; [exact K | exact WS]].
    intros k Wk. rewrite !coefsum_wsum, (WS _ (key_ind_respects k Wk)). now rewrite contrib_ind. }
  unfold add_dict_add_term.
  destruct (umap_find expr_eqb t d) as [v|] eqn:F.
  - destruct (find_split t d v Wt (dinv_wf _ I) F) as (d1 & k0 & d2 & -> & E0 & N & S & R).
    assert (Hin : In (k0, v) (d1 ++ (k0, v) :: d2)) by (apply in_or_app; right; left; reflexivity).
    destruct (dinv_val _ I _ Hin) as [Xv Zv]. cbn [snd] in Xv, Zv.
    assert (W0 : wf k0 = true) by (apply (dinv_wf _ I _ Hin)).
    rewrite (num_add_ok v c Xv Xc). cbn [bind].
    destruct (num_is_zero (xadd v c)) eqn:Z.
    + exists (d1 ++ d2). rewrite R. split; [reflexivity|]. split; [eapply dinv_erase; exact I|]. split.
      { intros p Hp. left. exists p. split; [|reflexivity].
        apply in_app_or in Hp. apply in_or_app. cbn. tauto. }
      intros phi RP.
      etransitivity; [apply wsum_app|].
      etransitivity; [|apply qi_add_proper; [symmetry; apply wsum_app | reflexivity]].
      cbn [wsum fst snd]. apply qi_rearr_erase.
      etransitivity; [apply qi_add_proper; [reflexivity | apply qi_mul_proper; [reflexivity | symmetry; apply (RP k0 t W0 Wt E0)]]|].
      etransitivity; [apply qi_mul_add_r|]. apply qi_mul_zero_l.
      etransitivity; [symmetry; apply (xadd_val v c Xv Xc)|]. apply is_zero_val; auto using xadd_xok.
    + exists (d1 ++ (k0, xadd v c) :: d2). rewrite S. split; [reflexivity|].
      split; [eapply dinv_set; eauto using xadd_xok|]. split.
      { intros p Hp. left. apply in_app_or in Hp. destruct Hp as [Hp|[<-|Hp]].
        -- exists p. split; [apply in_or_app; left; exact Hp | reflexivity].
        -- exists (k0, v). split; [exact Hin | reflexivity].
        -- exists p. split; [apply in_or_app; right; right; exact Hp | reflexivity]. }
      intros phi RP.
      etransitivity; [apply wsum_app|].
      etransitivity; [|apply qi_add_proper; [symmetry; apply wsum_app | reflexivity]].
      cbn [wsum fst snd]. apply qi_rearr_set.
      etransitivity; [apply qi_add_proper; [reflexivity | apply qi_mul_proper; [reflexivity | symmetry; apply (RP k0 t W0 Wt E0)]]|].
      etransitivity; [apply qi_mul_add_r|]. apply qi_mul_proper; [|reflexivity].
      symmetry. apply (xadd_val v c Xv Xc).
  - destruct (num_is_zero c) eqn:Z.
    + exists d. split; [reflexivity|]. split; [exact I|].
      split; [intros p Hp; left; exists p; auto|].
      intros phi RP. symmetry. etransitivity; [|apply qi_add_0_r].
      apply qi_add_proper; [reflexivity|]. apply qi_mul_zero_l. now apply (is_zero_val c Xc).
    + exists (d ++ [(t, c)]). split; [reflexivity|]. split; [apply dinv_snoc; auto; apply (find_none_all t d Wt (dinv_wf _ I) F)|].
      split; [intros p Hp; apply in_app_or in Hp; destruct Hp as [Hp|[<-|[]]]; [left; exists p; auto | right; reflexivity]|].
      intros phi RP. etransitivity; [apply wsum_app|]. cbn [wsum fst snd].
      apply qi_add_proper; [reflexivity | apply qi_add_0_r].
Qed.

(* the loop over the entries of another dictionary *)
Lemma datms_spec : forall l d, dinv d -> (forall p, In p l -> wf (fst p) = true /\ xok (snd p) = true) ->
  exists d', add_dict_add_terms d l = Ok d' /\ dinv d' /\
    (forall k, wf k = true -> qi_eq (coefsum d' k) (qi_add (coefsum d k) (coefsum l k))) /\
    (forall p, In p d' -> exists q, In q (d ++ l) /\ fst q = fst p) /\
    (forall phi, respects phi -> qi_eq (wsum phi d') (qi_add (wsum phi d) (wsum phi l))).
Proof.
  intros l d I H.
  enough (G : exists d', add_dict_add_terms d l = Ok d' /\ dinv d' /\
            (forall p, In p d' -> exists q, In q (d ++ l) /\ fst q = fst p) /\
            (forall phi, respects phi -> qi_eq (wsum phi d') (qi_add (wsum phi d) (wsum phi l)))).
  { destruct G as (d' & E & I' & K & WS). exists d'. split; [exact E|]. split; [exact I'|]. split; [|split; [exact K | exact WS]].
    intros k Wk. rewrite !coefsum_wsum. now apply WS, key_ind_respects. }
  unfold add_dict_add_terms. revert d I H.
  induction l as [|[t c] l IH]; intros d I H; cbn [fold_res].
  - exists d. split; [reflexivity|]. split; [exact I|].
    split; [intros p Hp; exists p; rewrite app_nil_r; auto|].
    intros phi _. cbn [wsum]. symmetry. apply qi_add_0_r.
  - destruct (H (t, c) (or_introl eq_refl)) as [Wt Xc]. cbn [fst snd] in Wt, Xc.
    destruct (datm_spec d c t I Wt Xc) as (d1 & E1 & I1 & _ & K1 & W1).
    cbn [fst snd]. rewrite E1. cbn [bind].
    destruct (IH d1 I1) as (d2 & E2 & I2 & K2 & W2); [intros p Hp; apply H; right; exact Hp|].
    exists d2. split; [exact E2|]. split; [exact I2|]. split.
    + intros p Hp. destruct (K2 p Hp) as [q [Hq Eq]]. apply in_app_or in Hq. destruct Hq as [Hq|Hq].
      * destruct (K1 q Hq) as [[q' [Hq' Eq']]|Et].
        -- exists q'. split; [apply in_or_app; left; exact Hq' | congruence].
        -- exists (t, c). split; [apply in_or_app; right; left; reflexivity | cbn [fst]; congruence].
      * exists q. split; [apply in_or_app; right; right; exact Hq | exact Eq].
    + intros phi RP. etransitivity; [apply (W2 phi RP)|].
      etransitivity; [apply qi_add_proper; [apply (W1 phi RP) | reflexivity]|].
      cbn [wsum fst snd]. symmetry. apply qi_add_assoc.
Qed.

Lemma term_ok_wf : forall t, term_ok t = true -> wf t = true.
Proof. intros t H. unfold term_ok in H. apply andb_prop in H. destruct H as [H _]. apply andb_prop in H. apply H. Qed.
Lemma term_ok_canonical : forall t, term_ok t = true -> canonical t = true.
Proof. intros t H. unfold term_ok in H. apply andb_prop in H. destruct H as [H _]. apply andb_prop in H. apply H. Qed.
Lemma term_ok_not_num : forall t, term_ok t = true -> ctor_kind t <> 0%N.
Proof.
  intros t H. unfold term_ok in H. apply andb_prop in H. destruct H as [_ H].
  destruct t; cbn [ctor_kind]; try discriminate.
Qed.

Lemma entry_ok_inv : forall p, entry_ok p = true ->
  term_ok (fst p) = true /\ xok (snd p) = true /\ num_is_zero (snd p) = false.
Proof.
  intros p H. unfold entry_ok in H. apply andb_prop in H. destruct H as [H Z]. apply andb_prop in H.
  destruct H as [T X]. apply negb_true_iff in Z. auto.
Qed.

Lemma aok_dinv : forall d, adict_ok d = true -> dinv d.
Proof.
  intros d H. unfold adict_ok in H. apply andb_prop in H. destruct H as [F N]. rewrite forallb_forall in F.
  split; [| |exact N].
  - intros p Hp. apply term_ok_wf. apply (entry_ok_inv p (F p Hp)).
  - intros p Hp. destruct (entry_ok_inv p (F p Hp)) as (_ & X & Z). auto.
Qed.
Lemma aok_entry : forall d p, adict_ok d = true -> In p d ->
  term_ok (fst p) = true /\ xok (snd p) = true /\ num_is_zero (snd p) = false.
Proof.
  intros d p H Hp. unfold adict_ok in H. apply andb_prop in H. destruct H as [F _]. rewrite forallb_forall in F.
  apply entry_ok_inv. auto.
Qed.

Lemma aok_intro : forall d, dinv d -> (forall p, In p d -> term_ok (fst p) = true) -> adict_ok d = true.
Proof.
  intros d [K V N] T. unfold adict_ok. rewrite N, andb_true_r. apply forallb_forall. intros p Hp.
  unfold entry_ok. rewrite (T p Hp). destruct (V p Hp) as [X Z]. rewrite X, Z. reflexivity.
Qed.

Lemma aok_nil : adict_ok [] = true. Proof. reflexivity. Qed.

(* dict_add_term and the loop over it keep the guard *)
Lemma datm_ok : forall d c t, adict_ok d = true -> term_ok t = true -> xok c = true ->
  exists d', add_dict_add_term d c t = Ok d' /\ adict_ok d' = true /\
    (forall k, wf k = true -> qi_eq (coefsum d' k) (qi_add (coefsum d k) (contrib k (t, c)))) /\
    (forall phi, respects phi -> qi_eq (wsum phi d') (qi_add (wsum phi d) (qi_mul (qval c) (phi t)))).
Proof.
  intros d c t D T Xc.
  destruct (datm_spec d c t (aok_dinv _ D) (term_ok_wf _ T) Xc) as (d' & E & I' & S & KF & WS).
  exists d'. split; [exact E|]. split; [|split; [exact S | exact WS]].
  apply aok_intro; auto. intros p Hp. destruct (KF p Hp) as [[q [Hq <-]] | ->]; [|exact T].
  apply (aok_entry _ q D Hq).
Qed.

Lemma datms_ok : forall l d, adict_ok d = true -> adict_ok l = true ->
  exists d', add_dict_add_terms d l = Ok d' /\ adict_ok d' = true /\
    (forall k, wf k = true -> qi_eq (coefsum d' k) (qi_add (coefsum d k) (coefsum l k))) /\
    (forall phi, respects phi -> qi_eq (wsum phi d') (qi_add (wsum phi d) (wsum phi l))).
Proof.
  intros l d D L.
  destruct (datms_spec l d (aok_dinv _ D)) as (d' & E & I' & S & KF & WS).
  { intros p Hp. destruct (aok_entry _ p L Hp) as (T & X & _). auto using term_ok_wf. }
  exists d'. split; [exact E|]. split; [|split; [exact S | exact WS]].
  apply aok_intro; auto. intros p Hp. destruct (KF p Hp) as [q [Hq <-]]. apply in_app_or in Hq.
  destruct Hq as [Hq|Hq]; [apply (aok_entry _ q D Hq) | apply (aok_entry _ q L Hq)].
Qed.

(* a number is never eq to a non-number *)
Lemma eqb_num_l : forall n t, ctor_kind t <> 0%N -> expr_eqb (ENum n) t = false.
Proof.
  intros n t H. destruct (expr_eqb (ENum n) t) eqn:E; [|reflexivity].
  apply expr_eqb_kind in E. cbn [ctor_kind] in E. congruence.
Qed.
Lemma eqb_num_r : forall n t, ctor_kind t <> 0%N -> expr_eqb t (ENum n) = false.
Proof.
  intros n t H. destruct (expr_eqb t (ENum n)) eqn:E; [|reflexivity].
  apply expr_eqb_kind in E. cbn [ctor_kind] in E. congruence.
Qed.

Lemma mul_from_dict_ge2 : forall c p1 p2 d, num_is_zero c = false ->
  mul_from_dict c (p1 :: p2 :: d) = EMul c (p1 :: p2 :: d).
Proof. intros c [k1 v1] p2 d Z. unfold mul_from_dict. rewrite Z. reflexivity. Qed.

(* the three kinds of legal keys, and [single_term_mul] on each *)
Definition not_add (x : expr) : Prop := match x with EAdd _ _ => False | _ => True end.
Inductive key_shape : expr -> Prop :=
| KS_mul : forall p1 p2 d, key_shape (EMul (NInt 1) (p1 :: p2 :: d))
| KS_pow : forall b e, mul_entry_canonical (b, e) = true -> key_shape (EPow b e)
| KS_atom : forall a, is_atom a = true -> not_add a -> key_shape a.

Lemma term_cases : forall t, term_ok t = true -> key_shape t.
Proof.
  intros t H. unfold term_ok in H. apply andb_prop in H. destruct H as [_ H].
  destruct t as [| | | | |c d|b e| | | | | | | | | | | ]; try discriminate H; try (apply KS_atom; [reflexivity | exact I]).
  - destruct c as [[|[| |]|]| | | | | | ]; try discriminate H. destruct d as [|p1 [|p2 d]]; try discriminate H. apply KS_mul.
  - now apply KS_pow.
Qed.

Lemma stm_mul : forall v c p1 p2 d, num_is_zero v = false ->
  single_term_mul v (EMul c (p1 :: p2 :: d)) = EMul v (p1 :: p2 :: d).
Proof. intros. now apply mul_from_dict_ge2. Qed.
Lemma stm_atom : forall v a, is_atom a = true -> single_term_mul v a = EMul v [(a, e_one)].
Proof. intros v a A. destruct a; try discriminate A; reflexivity. Qed.

(* Add::from_dict respects equality of dictionaries *)
Lemma eqb_one_one : expr_eqb e_one e_one = true.
Proof. reflexivity. Qed.

Lemma single_term_mul_cong : forall v k k', xok v = true -> num_is_zero v = false ->
  term_ok k = true -> term_ok k' = true -> expr_eqb k k' = true ->
  expr_eqb (single_term_mul v k) (single_term_mul v k') = true.
Proof.
  intros v k k' Xv Zv Tk Tk' E.
  pose proof (expr_eqb_kind k k' E) as KK.
  pose proof (cmp_num_eqb_refl v Xv) as RV.
  unfold term_ok in Tk, Tk'. apply andb_prop in Tk, Tk'. destruct Tk as [_ Tk]. destruct Tk' as [_ Tk'].
  destruct k as [| | | | |mc1 md1| | | | | | | | | | | | ]; try discriminate Tk;
  destruct k' as [| | | | |mc2 md2| | | | | | | | | | | | ]; try discriminate Tk'; try discriminate KK;
    cbn [single_term_mul];
    try (rewrite eqb_EMul, RV; cbn [flat flat_map app list_eqb fst snd]; rewrite E, eqb_one_one; reflexivity).
  - (* Mul keys with coefficient 1 and >= 2 factors *)
    destruct mc1 as [[|[| |]|]| | | | | | ]; try discriminate Tk.
    destruct mc2 as [[|[| |]|]| | | | | | ]; try discriminate Tk'.
    rewrite eqb_EMul in E. apply andb_prop in E. destruct E as [_ E].
    destruct md1 as [|p1 [|p2 md1]]; try discriminate Tk. destruct md2 as [|q1 [|q2 md2]]; try discriminate Tk'.
    rewrite !mul_from_dict_ge2 by exact Zv.
    rewrite eqb_EMul, RV. exact E.
  - (* Pow keys *)
    rewrite eqb_EPow in E. rewrite eqb_EMul, RV. cbn [flat flat_map app list_eqb fst snd].
    apply andb_prop in E. destruct E as [E1 E2]. rewrite E1, E2. reflexivity.
Qed.

Lemma afd_cong : forall c d d', xok c = true -> adict_ok d = true -> adict_ok d' = true ->
  umap_eqb expr_eqb d d' = true -> expr_eqb (add_from_dict c d) (add_from_dict c d') = true.
Proof.
  intros c d d' Xc D D' U.
  pose proof (cmp_num_eqb_refl c Xc) as RC.
  assert (L : length d = length d').
  { unfold umap_eqb in U. apply andb_prop in U. destruct U as [U _]. now apply Nat.eqb_eq in U. }
  destruct d as [|[k v] [|p2 d]]; destruct d' as [|[k' v'] [|q2 d']]; try discriminate L; cbn [add_from_dict].
  - now rewrite eqb_ENum.
  - (* single entries *)
    unfold umap_eqb in U. cbn [length Nat.eqb forallb umap_find fst snd] in U.
    rewrite andb_true_r in U. cbn [andb] in U.
    destruct ((hash k' =? hash k)%N && expr_eqb k' k) eqn:M; [|discriminate U].
    apply andb_prop in M. destruct M as [_ M].
    destruct (aok_entry _ (k, v) D (or_introl eq_refl)) as (Tk & Xv & Zv).
    destruct (aok_entry _ (k', v') D' (or_introl eq_refl)) as (Tk' & Xv' & Zv').
    cbn [fst snd] in *.
    assert (v = v') by (apply cmp_num_eqb_eq; auto). subst v'.
    assert (E : expr_eqb k k' = true).
    { rewrite expr_eqb_sym_eq by auto using term_ok_wf. exact M. }
    destruct (num_is_zero c).
    + destruct v as [z| | | | | | ]; try (apply single_term_mul_cong; assumption).
      destruct (z =? 0); [now rewrite eqb_ENum|]. destruct (z =? 1); [exact E|].
      apply single_term_mul_cong; assumption.
    + rewrite eqb_EAdd, RC. cbn [andb]. unfold umap_eqb. cbn [length Nat.eqb forallb umap_find fst snd].
      rewrite M. rewrite (hash_respects_eq k' k) by auto using term_ok_wf. rewrite N.eqb_refl. cbn [andb].
      rewrite (cmp_num_eqb_refl v Xv). reflexivity.
  - rewrite eqb_EAdd, RC. exact U.
Qed.

(* the linear form of a result of Add::from_dict *)
Lemma neq_one_of_not_one : forall v, xok v = true -> (forall z, v = NInt z -> z <> 1) -> num_neq_int v 1 = true.
Proof.
  intros v Xv H. unfold num_neq_int. apply negb_true_iff.
  destruct (SE.Expr.Cmp.num_eqb v (NInt 1)) eqn:E; [|reflexivity].
  apply cmp_num_eqb_eq in E; auto. exfalso. eapply H; eauto.
Qed.

Lemma eqb_e_one_false : forall e, wf e = true -> is_int_val e 1 = false -> expr_eqb e e_one = false.
Proof.
  intros e W H. destruct (expr_eqb e e_one) eqn:E; [|reflexivity].
  pose proof (expr_eqb_kind _ _ E) as K. destruct e; try discriminate K.
  unfold e_one, e_int in E. rewrite eqb_ENum in E.
  rewrite wf_num in W. destruct n; try discriminate E. cbn in E. apply Z.eqb_eq in E. subst. discriminate H.
Qed.

Lemma pow_exp_not_one : forall b e, canonical (EPow b e) = true -> is_int_val e 1 = false.
Proof.
  intros b e C. cbn [canonical node_canonical] in C. apply andb_prop in C. destruct C as [C _].
  unfold pow_node_canonical in C. destruct (is_int_val b 0).
  - destruct e; try reflexivity. discriminate C.
  - repeat (apply andb_prop in C; destruct C as [C ?]).
    destruct (is_int_val e 1); [discriminate|reflexivity].
Qed.

Lemma lin_single_term : forall v k, xok v = true -> num_is_zero v = false ->
  (forall z, v = NInt z -> z <> 1) -> term_ok k = true ->
  lin_of (single_term_mul v k) = (NInt 0, [(k, v)]).
Proof.
  intros v k Xv Zv N1 Tk.
  pose proof (neq_one_of_not_one v Xv N1) as NE.
  (* as_coef_term rebuilds the key with Mul::from_dict(1, .) *)
  assert (G : forall d, mul_from_dict (NInt 1) d = k -> lin_of (EMul v d) = (NInt 0, [(k, v)])).
  { intros d <-. unfold lin_of, as_coef_term. now rewrite NE. }
  destruct (term_cases k Tk) as [p1 p2 d | b e _ | a A _].
  - rewrite stm_mul by exact Zv. apply G. now apply mul_from_dict_ge2.
  - apply G.
    pose proof (pow_exp_not_one _ _ (term_ok_canonical _ Tk)) as P1.
    assert (We : wf e = true) by (apply (children_wf (EPow b e)); [now apply term_ok_wf | cbn; auto]).
    unfold mul_from_dict. cbn [num_is_zero num_is_one Z.eqb]. rewrite (eqb_e_one_false e We P1).
    destruct e as [[z| | | | | | ]| | | | | | | | | | | | | | | | | ]; try reflexivity.
    cbn [is_int_val] in P1. rewrite P1. reflexivity.
  - rewrite stm_atom by exact A. apply G. reflexivity.
Qed.

(* the four shapes of Add::from_dict *)
Inductive afd_shape (c : number) (d : adict) : expr -> Prop :=
| AFD_num : d = [] -> afd_shape c d (ENum c)
| AFD_key : forall k, num_is_zero c = true -> d = [(k, NInt 1)] -> term_ok k = true -> afd_shape c d k
| AFD_term : forall k v, num_is_zero c = true -> d = [(k, v)] -> term_ok k = true -> xok v = true ->
    num_is_zero v = false -> (forall z, v = NInt z -> z <> 1) -> afd_shape c d (single_term_mul v k)
| AFD_add : d <> [] -> (num_is_zero c = false \/ (2 <= length d)%nat) -> afd_shape c d (EAdd c d).

Lemma afd_cases : forall c d, adict_ok d = true -> afd_shape c d (add_from_dict c d).
Proof.
  intros c d D. destruct d as [|[k v] [|p2 d]]; cbn [add_from_dict].
  - now apply AFD_num.
  - destruct (aok_entry _ (k, v) D (or_introl eq_refl)) as (Tk & Xv & Zv). cbn [fst snd] in *.
    destruct (num_is_zero c) eqn:Zc; [|apply AFD_add; [discriminate | auto]].
    assert (G : (forall z, v = NInt z -> z <> 1) -> afd_shape c [(k, v)] (single_term_mul v k))
      by (intros; now apply AFD_term).
    destruct v as [z| | | | | | ]; try (apply G; intros; discriminate).
    destruct (z =? 0) eqn:Z0; [apply Z.eqb_eq in Z0; subst; discriminate Zv|].
    destruct (z =? 1) eqn:Z1; [apply Z.eqb_eq in Z1; subst; now apply AFD_key|].
    apply G. intros z' Q. injection Q as <-. now apply Z.eqb_neq.
  - apply AFD_add; [discriminate | right; cbn [length]; lia].
Qed.

Theorem lin_of_afd : forall c d, xok c = true -> adict_ok d = true -> lin_of (add_from_dict c d) = (c, d).
Proof.
  intros c d Xc D. destruct (afd_cases c d D) as [-> | k Zc -> T | k v Zc -> T Xv Zv N1 | NE H]; try reflexivity.
  - rewrite (is_zero_eq c Xc Zc). destruct (term_cases k T) as [p1 p2 d | b e _ | a A NA]; try reflexivity.
    destruct a; try discriminate A; try contradiction; reflexivity.
  - rewrite (is_zero_eq c Xc Zc). now apply lin_single_term.
Qed.

(* canonical form and well-formedness of Add::from_dict *)
Lemma xok_canonical : forall n, xok n = true -> num_canonical n = true.
Proof.
  intros n H. apply andb_prop in H. destruct H as [E W].
  destruct n; try discriminate E; cbn [num_canonical NumModel.num_wf] in *; assumption.
Qed.

Lemma wf_intro : forall e, wf_struct e = true -> codes_ok e = true -> wf e = true.
Proof. intros e A B. unfold wf. now rewrite A, B. Qed.
Lemma wf_parts : forall e, wf e = true -> wf_struct e = true /\ codes_ok e = true.
Proof. intros e H. unfold wf in H. now apply andb_prop in H. Qed.

Lemma node_ok_Add : forall c d, node_ok (EAdd c d) = true. Proof. reflexivity. Qed.
Lemma node_ok_Mul : forall c d, node_ok (EMul c d) = true. Proof. reflexivity. Qed.

Lemma wf_EAdd_intro : forall c d, xok c = true -> dinv d -> wf (EAdd c d) = true.
Proof.
  intros c d Xc [K V N]. apply wf_intro.
  - cbn [wf_struct]. rewrite (xok_wf c Xc), N, andb_true_r. cbn [andb]. apply forallb_forall. intros p Hp.
    destruct (wf_parts _ (K p Hp)) as [A _]. rewrite A. cbn [andb]. apply xok_wf. apply (V p Hp).
  - cbn [codes_ok]. rewrite node_ok_Add. cbn [andb]. apply forallb_forall. intros p Hp.
    apply (wf_parts _ (K p Hp)).
Qed.

Lemma wf_EMul_coef : forall c v d, wf (EMul c d) = true -> xok v = true -> wf (EMul v d) = true.
Proof.
  intros c v d W Xv. destruct (wf_parts _ W) as [A B]. apply wf_intro.
  - cbn [wf_struct] in *. apply andb_prop in A. destruct A as [_ A]. now rewrite A, (xok_wf v Xv).
  - cbn [codes_ok] in *. exact B.
Qed.

Lemma wf_EMul_single : forall v b e, xok v = true -> wf b = true -> wf e = true -> wf (EMul v [(b, e)]) = true.
Proof.
  intros v b e Xv Wb We. destruct (wf_parts _ Wb) as [A1 B1]. destruct (wf_parts _ We) as [A2 B2]. apply wf_intro.
  - cbn [wf_struct forallb fst snd]. now rewrite (xok_wf v Xv), A1, A2.
  - cbn [codes_ok forallb fst snd]. now rewrite node_ok_Mul, B1, B2.
Qed.

Lemma wf_single_term_mul : forall v k, xok v = true -> num_is_zero v = false -> term_ok k = true ->
  wf (single_term_mul v k) = true.
Proof.
  intros v k Xv Zv T. pose proof (term_ok_wf _ T) as W.
  destruct (term_cases k T) as [p1 p2 d | b e _ | a A _].
  - rewrite stm_mul by exact Zv. eapply wf_EMul_coef; eauto.
  - apply wf_EMul_single; auto; apply (children_wf (EPow b e)); auto; cbn; auto.
  - rewrite stm_atom by exact A. apply wf_EMul_single; auto; reflexivity.
Qed.

Lemma wf_afd : forall c d, xok c = true -> adict_ok d = true -> wf (add_from_dict c d) = true.
Proof.
  intros c d Xc D. destruct (afd_cases c d D) as [-> | k Zc -> T | k v Zc -> T Xv Zv N1 | NE H].
  - now apply xok_wf_expr.
  - now apply term_ok_wf.
  - now apply wf_single_term_mul.
  - apply wf_EAdd_intro; auto using aok_dinv.
Qed.

(* With two or more factors the node rule of a Mul constrains the coefficient only through
   [num_is_zero] and [num_canonical], so any exact nonzero coefficient may replace 1. *)
Lemma canonical_EMul_coef : forall v p1 p2 d, xok v = true -> num_is_zero v = false ->
  canonical (EMul (NInt 1) (p1 :: p2 :: d)) = true -> canonical (EMul v (p1 :: p2 :: d)) = true.
Proof.
  intros v p1 p2 d Xv Zv C. cbn [canonical node_canonical] in *. apply andb_prop in C. destruct C as [C1 C2].
  rewrite C2, andb_true_r. rewrite (xok_canonical v Xv). cbn [andb].
  unfold mul_node_canonical in *. rewrite Zv. cbn [negb andb].
  cbn [num_canonical num_is_zero Z.eqb negb andb] in C1. exact C1.
Qed.

Lemma not_one_is_one : forall v, xok v = true -> (forall z, v = NInt z -> z <> 1) -> num_is_one v = false.
Proof.
  intros v Xv H. destruct (num_is_one v) eqn:O; [|reflexivity].
  apply is_one_eq in O; auto. exfalso. eapply H; eauto.
Qed.

Lemma canonical_single_term_mul : forall v k, xok v = true -> num_is_zero v = false ->
  (forall z, v = NInt z -> z <> 1) -> term_ok k = true -> canonical (single_term_mul v k) = true.
Proof.
  intros v k Xv Zv N1 T. pose proof (term_ok_canonical _ T) as C. pose proof (not_one_is_one v Xv N1) as O.
  assert (SINGLE : forall a e, canonical a = true -> canonical e = true -> mul_entry_canonical (a, e) = true ->
             canonical (EMul v [(a, e)]) = true).
  { intros a e Ca Ce M. cbn [canonical node_canonical forallb fst snd]. rewrite Ca, Ce, (xok_canonical v Xv).
    unfold mul_node_canonical. rewrite Zv, O. cbn [negb andb forallb]. now rewrite M. }
  destruct (term_cases k T) as [p1 p2 d | b e M | a A _].
  - rewrite stm_mul by exact Zv. apply canonical_EMul_coef; auto.
  - cbn [canonical node_canonical] in C. apply andb_prop in C. destruct C as [_ C]. apply andb_prop in C.
    destruct C. now apply SINGLE.
  - rewrite stm_atom by exact A. apply SINGLE; [exact C | reflexivity |].
    unfold mul_entry_canonical, is_IntOrRat, is_int_val. cbn [fst snd]. destruct a; try discriminate A; reflexivity.
Qed.

Theorem canonical_afd : forall c d, xok c = true -> adict_ok d = true -> canonical (add_from_dict c d) = true.
Proof.
  intros c d Xc D. destruct (afd_cases c d D) as [-> | k Zc -> T | k v Zc -> T Xv Zv N1 | NE H].
  - cbn [canonical node_canonical]. rewrite (xok_canonical c Xc). reflexivity.
  - now apply term_ok_canonical.
  - now apply canonical_single_term_mul.
  - assert (KEYS : forallb (fun p : expr * number => canonical (fst p)) d = true).
    { apply forallb_forall. intros p Hp. apply term_ok_canonical. apply (aok_entry _ p D Hp). }
    assert (ENT : forallb add_entry_canonical d = true).
    { apply forallb_forall. intros p Hp. destruct (aok_entry _ p D Hp) as (T & X & Z).
      unfold add_entry_canonical. rewrite Z.
      destruct (term_cases _ T) as [p1 p2 d' | b e _ | a A _]; try reflexivity.
      destruct a; try discriminate A; reflexivity. }
    assert (VALS : forallb (fun p : expr * number => num_canonical (snd p)) d = true).
    { apply forallb_forall. intros p Hp. apply xok_canonical. apply (aok_entry _ p D Hp). }
    cbn [canonical node_canonical]. rewrite KEYS, VALS, (xok_canonical c Xc). cbn [andb].
    rewrite andb_true_r. unfold add_node_canonical.
    destruct d as [|p [|q r]]; [contradiction | | exact ENT].
    destruct H as [Z|L]; [rewrite Z; exact ENT | cbn [length] in L; lia].
Qed.

(* equal coefficient sums give eq results *)
Lemma afd_eq_of_sums : forall c d d', xok c = true -> adict_ok d = true -> adict_ok d' = true ->
  (forall k, wf k = true -> qi_eq (coefsum d k) (coefsum d' k)) ->
  expr_eqb (add_from_dict c d) (add_from_dict c d') = true.
Proof.
  intros c d d' Xc D D' H. apply afd_cong; auto. apply dinv_ext; auto using aok_dinv.
Qed.

