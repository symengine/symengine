(* add(a, b), add(vec), sub: what they compute on operands satisfying [add_operand_ok]
   (ArithGuards.v): the result is Add::from_dict of the merged linear forms, it satisfies the
   guard again (closure), it is canonical (C03), and it does not depend on operand order or
   grouping (C04). *)
From SE Require Export Expr.ArithAddDict.
From SE Require Import Num.NumSpec Num.NumQi Expr.CmpProofs.
From Coq Require Import QArith Lia Permutation Setoid Morphisms.
Local Open Scope Z_scope.

(* add(a, b) *)
Definition lconst (x : expr) : number := fst (lin_of x).
Definition lterms (x : expr) : adict := snd (lin_of x).

Lemma aok_inv : forall x, add_operand_ok x = true -> xok (lconst x) = true /\ adict_ok (lterms x) = true.
Proof. intros x H. unfold add_operand_ok, lin_ok in H. apply andb_prop in H. exact H. Qed.

Lemma aok_of : forall c d, xok c = true -> adict_ok d = true -> add_operand_ok (add_from_dict c d) = true.
Proof. intros c d X D. unfold add_operand_ok. rewrite lin_of_afd by assumption. unfold lin_ok. cbn [fst snd]. now rewrite X, D. Qed.

(* the shape of an operand that is not an Add *)
Inductive nonadd_shape (x : expr) : Prop :=
| NS_num : forall n, x = ENum n -> xok n = true -> nonadd_shape x
| NS_term : forall c t, as_coef_term x = (c, t) -> lin_of x = (NInt 0, [(t, c)]) ->
            term_ok t = true -> xok c = true -> num_is_zero c = false ->
            (match x with ENum _ => False | _ => True end) -> nonadd_shape x.

Lemma lin_of_other : forall x, (match x with ENum _ | EAdd _ _ => False | _ => True end) ->
  lin_of x = (NInt 0, [(snd (as_coef_term x), fst (as_coef_term x))]).
Proof. intros x H. destruct x; try contradiction; reflexivity. Qed.

Lemma nonadd_cases : forall x, add_operand_ok x = true -> not_add x -> nonadd_shape x.
Proof.
  intros x H NA. destruct (aok_inv x H) as [Xc D]. unfold lconst, lterms in *.
  assert (G : (match x with ENum _ | EAdd _ _ => False | _ => True end) -> nonadd_shape x).
  { intros O. pose proof (lin_of_other x O) as L. rewrite L in D. cbn [snd] in D.
    destruct (aok_entry _ _ D (or_introl eq_refl)) as (T & X & Z). cbn [fst snd] in T, X, Z.
    apply (NS_term _ (fst (as_coef_term x)) (snd (as_coef_term x))); auto.
    - destruct (as_coef_term x); reflexivity.
    - destruct x; try contradiction; exact I. }
  destruct x; try contradiction; try (apply G; exact I).
  apply (NS_num _ n); auto.
Qed.

Lemma find_one_none : forall d, (forall p, In p d -> ctor_kind (fst p) <> 0%N) -> umap_find expr_eqb e_one d = None.
Proof.
  induction d as [|[k v] d IH]; intros H; [reflexivity|]. cbn [umap_find].
  unfold e_one, e_int. rewrite (eqb_num_r (NInt 1) k) by (apply (H (k, v)); left; reflexivity).
  rewrite andb_false_r. apply IH. intros p Hp. apply H. right. exact Hp.
Qed.

Lemma coefsum_single : forall t c k, coefsum [(t, c)] k = qi_add (contrib k (t, c)) qi_zero.
Proof. reflexivity. Qed.

Lemma xadd_00 : xadd (NInt 0) (NInt 0) = NInt 0. Proof. reflexivity. Qed.

Lemma add_into_spec : forall ca da x, xok ca = true -> adict_ok da = true -> add_operand_ok x = true -> not_add x ->
  exists d, add_into ca da x = Ok (add_from_dict (xadd ca (lconst x)) d) /\ adict_ok d = true /\
    (forall phi, respects phi -> qi_eq (wsum phi d) (qi_add (wsum phi da) (wsum phi (lterms x)))).
Proof.
  intros ca da x Xa Da Hx NA. destruct (nonadd_cases x Hx NA) as [n EQ Xn | c t CT LIN T Xc Zc NN].
  - subst x. unfold lconst, lterms. cbn [add_into lin_of fst snd].
    exists da. destruct (num_is_zero n) eqn:Z; cbn [negb].
    + rewrite (is_zero_eq n Xn Z), xadd_0_r by assumption. split; [reflexivity|]. split; [exact Da|].
      intros phi _. symmetry. apply qi_add_0_r.
    + rewrite (num_add_ok ca n Xa Xn). cbn [bind]. split; [reflexivity|]. split; [exact Da|].
      intros phi _. symmetry. apply qi_add_0_r.
  - unfold lconst, lterms. rewrite LIN. cbn [fst snd]. rewrite xadd_0_r by assumption.
    assert (AI : add_into ca da x = bind (add_dict_add_term da c t) (fun d => Ok (add_from_dict ca d))).
    { destruct x; try contradiction; cbn [add_into]; rewrite CT; reflexivity. }
    rewrite AI.
    destruct (datm_ok da c t Da T Xc) as (d' & E & D' & _ & WS).
    rewrite E. cbn [bind]. exists d'. split; [reflexivity|]. split; [exact D'|].
    intros phi RP. etransitivity; [apply (WS phi RP)|]. cbn [wsum fst snd].
    apply qi_add_proper; [reflexivity | symmetry; apply qi_add_0_r].
Qed.

Lemma add_or_not : forall x, (exists c d, x = EAdd c d) \/ not_add x.
Proof. destruct x; unfold not_add; eauto. Qed.

Definition e_add_generic (a b : expr) : res expr :=
  let ct1 := as_coef_term a in
  bind (add_dict_add_term [] (fst ct1) (snd ct1)) (fun d1 =>
  let ct2 := as_coef_term b in
  bind (add_dict_add_term d1 (fst ct2) (snd ct2)) (fun d2 =>
  match umap_find expr_eqb e_one d2 with
  | None => Ok (add_from_dict (NInt 0) d2)
  | Some v => Ok (add_from_dict v (umap_erase e_one d2))
  end)).

(* [e_add] with its last case under a name: the cases below are read off this small term *)
Lemma e_add_eq : forall a b,
  e_add a b =
  match a, b with
  | EAdd ca da, EAdd cb db =>
      bind (add_dict_add_terms da db) (fun d => bind (num_add ca cb) (fun c => Ok (add_from_dict c d)))
  | EAdd ca da, _ => add_into ca da b
  | _, EAdd cb db => add_into cb db a
  | _, _ => e_add_generic a b
  end.
Proof. reflexivity. Qed.

Lemma e_add_nonadd : forall a b, not_add a -> not_add b -> e_add a b = e_add_generic a b.
Proof. intros a b Ha Hb. rewrite e_add_eq. destruct a; try contradiction; destruct b; try contradiction; reflexivity. Qed.
Lemma e_add_add_l : forall ca da b, not_add b -> e_add (EAdd ca da) b = add_into ca da b.
Proof. intros ca da b Hb. destruct b; try contradiction; reflexivity. Qed.
Lemma e_add_add_r : forall a cb db, not_add a -> e_add a (EAdd cb db) = add_into cb db a.
Proof. intros a cb db Ha. destruct a; try contradiction; reflexivity. Qed.

Lemma datm_nil : forall c t, add_dict_add_term [] c t = Ok (if num_is_zero c then [] else [(t, c)]).
Proof. intros. unfold add_dict_add_term. cbn [umap_find]. destruct (num_is_zero c); reflexivity. Qed.

Lemma hash_eqb_refl : forall k, (hash k =? hash k)%N = true.
Proof. intros. apply N.eqb_refl. Qed.

Lemma aok_single : forall t c, term_ok t = true -> xok c = true -> num_is_zero c = false -> adict_ok [(t, c)] = true.
Proof. intros t c T X Z. unfold adict_ok, entry_ok. cbn [forallb map fst snd pairwise_ne]. now rewrite T, X, Z. Qed.

Lemma km_one : key_match e_one e_one = true.
Proof. reflexivity. Qed.
Lemma find_one_hd : forall v d, umap_find expr_eqb e_one ((e_one, v) :: d) = Some v.
Proof. intros. cbn [umap_find]. fold (key_match e_one e_one). now rewrite km_one. Qed.
Lemma erase_one_hd : forall v d, umap_erase e_one ((e_one, v) :: d) = d.
Proof. intros. cbn [umap_erase]. now rewrite km_one. Qed.
Lemma set_one_hd : forall v s d, umap_set e_one s ((e_one, v) :: d) = (e_one, s) :: d.
Proof. intros. cbn [umap_set]. now rewrite km_one. Qed.
Lemma km_one_t : forall t, ctor_kind t <> 0%N -> key_match e_one t = false.
Proof. intros t H. unfold key_match, e_one, e_int. rewrite eqb_num_r by assumption. apply andb_false_r. Qed.
Lemma km_t_one : forall t, ctor_kind t <> 0%N -> key_match t e_one = false.
Proof. intros t H. unfold key_match, e_one, e_int. rewrite eqb_num_l by assumption. apply andb_false_r. Qed.
Lemma find_one_skip : forall t v d, ctor_kind t <> 0%N ->
  umap_find expr_eqb e_one ((t, v) :: d) = umap_find expr_eqb e_one d.
Proof. intros. cbn [umap_find]. fold (key_match e_one t). now rewrite km_one_t. Qed.
Lemma erase_one_skip : forall t v d, ctor_kind t <> 0%N ->
  umap_erase e_one ((t, v) :: d) = (t, v) :: umap_erase e_one d.
Proof. intros. cbn [umap_erase]. now rewrite km_one_t. Qed.
Lemma find_t_skip_one : forall t v d, ctor_kind t <> 0%N ->
  umap_find expr_eqb t ((e_one, v) :: d) = umap_find expr_eqb t d.
Proof. intros. cbn [umap_find]. fold (key_match t e_one). now rewrite km_t_one. Qed.

(* Neither operand is an Add: both go through Add::dict_add_term into an empty dictionary, a Number n as
   the term 1 with coefficient n; the constant of the result is then read back from the key 1 (and that
   entry erased).  Keys of the fragment are not Numbers, so the key 1 meets no other key. *)
Lemma e_add_generic_spec : forall a b, add_operand_ok a = true -> add_operand_ok b = true ->
  not_add a -> not_add b ->
  exists d, e_add_generic a b = Ok (add_from_dict (xadd (lconst a) (lconst b)) d) /\ adict_ok d = true /\
    (forall phi, respects phi -> qi_eq (wsum phi d) (qi_add (wsum phi (lterms a)) (wsum phi (lterms b)))).
Proof.
  intros a b Ha Hb NAa NAb. unfold e_add_generic.
  destruct (nonadd_cases a Ha NAa) as [n1 EQ1 Xn1 | c1 t1 CT1 LIN1 T1 Xc1 Zc1 NN1];
  destruct (nonadd_cases b Hb NAb) as [n2 EQ2 Xn2 | c2 t2 CT2 LIN2 T2 Xc2 Zc2 NN2].
  - (* number + number *)
    subst a b. unfold lconst, lterms. cbn [lin_of fst snd as_coef_term]. rewrite datm_nil. cbn [bind].
    exists []. split; [|split; [reflexivity | intros phi _; symmetry; apply qi_add_0_l]].
    destruct (num_is_zero n1) eqn:Z1.
    + rewrite datm_nil. cbn [bind]. rewrite (is_zero_eq n1 Xn1 Z1). rewrite xadd_0_l by assumption.
      destruct (num_is_zero n2) eqn:Z2.
      * cbn [umap_find]. now rewrite (is_zero_eq n2 Xn2 Z2).
      * rewrite find_one_hd, erase_one_hd. reflexivity.
    + unfold add_dict_add_term. rewrite find_one_hd.
      rewrite (num_add_ok n1 n2 Xn1 Xn2). cbn [bind]. rewrite erase_one_hd, set_one_hd.
      destruct (num_is_zero (xadd n1 n2)) eqn:Z; cbn [bind].
      * cbn [umap_find]. now rewrite (is_zero_eq _ (xadd_xok n1 n2 Xn1 Xn2) Z).
      * rewrite find_one_hd, erase_one_hd. reflexivity.
  - (* number + term *)
    subst a. unfold lconst, lterms. rewrite LIN2. cbn [lin_of fst snd as_coef_term]. rewrite CT2. cbn [fst snd].
    rewrite xadd_0_r by assumption. rewrite datm_nil. cbn [bind].
    exists [(t2, c2)]. split; [|split; [now apply aok_single | intros phi _; symmetry; apply qi_add_0_l]].
    pose proof (term_ok_not_num _ T2) as K2.
    destruct (num_is_zero n1) eqn:Z1.
    + rewrite datm_nil, Zc2. cbn [bind]. rewrite find_one_skip by assumption. cbn [umap_find].
      now rewrite (is_zero_eq n1 Xn1 Z1).
    + unfold add_dict_add_term. rewrite find_t_skip_one by assumption. cbn [umap_find]. rewrite Zc2.
      cbn [bind app]. rewrite find_one_hd, erase_one_hd. reflexivity.
  - (* term + number *)
    subst b. unfold lconst, lterms. rewrite LIN1. cbn [lin_of fst snd as_coef_term]. rewrite CT1. cbn [fst snd].
    rewrite xadd_0_l by assumption. rewrite datm_nil, Zc1. cbn [bind].
    exists [(t1, c1)]. split; [|split; [now apply aok_single | intros phi _; symmetry; apply qi_add_0_r]].
    pose proof (term_ok_not_num _ T1) as K1.
    unfold add_dict_add_term. rewrite find_one_skip by assumption. cbn [umap_find].
    destruct (num_is_zero n2) eqn:Z2.
    + cbn [bind]. rewrite find_one_skip by assumption. cbn [umap_find]. now rewrite (is_zero_eq n2 Xn2 Z2).
    + cbn [bind app]. rewrite find_one_skip by assumption. rewrite find_one_hd.
      rewrite erase_one_skip by assumption. rewrite erase_one_hd. reflexivity.
  - (* term + term *)
    unfold lconst, lterms. rewrite LIN1, LIN2, CT1, CT2. cbn [fst snd]. rewrite xadd_00.
    rewrite datm_nil, Zc1. cbn [bind].
    destruct (datm_ok [(t1, c1)] c2 t2 (aok_single t1 c1 T1 Xc1 Zc1) T2 Xc2) as (d2 & E & D2 & _ & WS).
    rewrite E. cbn [bind].
    rewrite find_one_none by (intros p Hp; apply term_ok_not_num; apply (aok_entry _ p D2 Hp)).
    exists d2. split; [reflexivity|]. split; [exact D2|].
    intros phi RP. etransitivity; [apply (WS phi RP)|]. cbn [wsum fst snd].
    apply qi_add_proper; [reflexivity | symmetry; apply qi_add_0_r].
Qed.

Theorem e_add_spec : forall a b, add_operand_ok a = true -> add_operand_ok b = true ->
  exists d, e_add a b = Ok (add_from_dict (xadd (lconst a) (lconst b)) d) /\ adict_ok d = true /\
    (forall k, wf k = true -> qi_eq (coefsum d k) (qi_add (coefsum (lterms a) k) (coefsum (lterms b) k))) /\
    (forall phi, respects phi -> qi_eq (wsum phi d) (qi_add (wsum phi (lterms a)) (wsum phi (lterms b)))).
Proof.
  intros a b Ha Hb.
  enough (G : exists d, e_add a b = Ok (add_from_dict (xadd (lconst a) (lconst b)) d) /\ adict_ok d = true /\
            (forall phi, respects phi -> qi_eq (wsum phi d) (qi_add (wsum phi (lterms a)) (wsum phi (lterms b))))).
  { destruct G as (d & E & D & WS). exists d. split; [exact E|]. split; [exact D|]. split; [|exact WS].
    intros k Wk. rewrite !coefsum_wsum. now apply WS, key_ind_respects. }
  destruct (aok_inv a Ha) as [Xa Da]. destruct (aok_inv b Hb) as [Xb Db].
  destruct (add_or_not a) as [(ca & da & ->)|NAa]; destruct (add_or_not b) as [(cb & db & ->)|NAb].
  - (* Add + Add *)
    unfold lconst, lterms in *. cbn [lin_of fst snd] in *. cbn [e_add].
    destruct (datms_ok db da Da Db) as (d' & E & D' & _ & WS).
    rewrite E. cbn [bind]. rewrite (num_add_ok ca cb Xa Xb). cbn [bind]. exists d'. auto.
  - (* Add + other *)
    rewrite e_add_add_l by assumption.
    unfold lconst at 1, lterms at 1. cbn [lin_of fst snd]. unfold lconst, lterms in Xa, Da. cbn [lin_of fst snd] in Xa, Da.
    apply add_into_spec; auto.
  - (* other + Add *)
    rewrite e_add_add_r by assumption.
    unfold lconst at 2, lterms at 2. cbn [lin_of fst snd]. unfold lconst, lterms in Xb, Db. cbn [lin_of fst snd] in Xb, Db.
    destruct (add_into_spec cb db a Xb Db Ha NAa) as (d & E & D & WS).
    exists d. rewrite (xadd_comm (lconst a) cb) by assumption. split; [exact E|]. split; [exact D|].
    intros phi RP. etransitivity; [apply (WS phi RP)|]. apply qi_add_comm.
  - (* neither is an Add *)
    rewrite e_add_nonadd by assumption. now apply e_add_generic_spec.
Qed.

Theorem add_total_closed : forall a b, add_operand_ok a = true -> add_operand_ok b = true ->
  exists r, e_add a b = Ok r /\ add_operand_ok r = true.
Proof.
  intros a b Ha Hb. destruct (e_add_spec a b Ha Hb) as (d & E & D & _ & _).
  eexists. split; [exact E|]. apply aok_of; auto.
  apply xadd_xok; [apply (aok_inv a Ha) | apply (aok_inv b Hb)].
Qed.

Theorem add_closed : forall a b r, add_operand_ok a = true -> add_operand_ok b = true ->
  e_add a b = Ok r -> add_operand_ok r = true.
Proof.
  intros a b r Ha Hb E. destruct (add_total_closed a b Ha Hb) as (r' & E' & C). congruence.
Qed.

(* canonical form (C03) *)
Theorem add_canonical : forall a b r, add_operand_ok a = true -> add_operand_ok b = true ->
  e_add a b = Ok r -> canonical r = true /\ wf r = true.
Proof.
  intros a b r Ha Hb E. destruct (e_add_spec a b Ha Hb) as (d & E' & D & _ & _).
  assert (X : xok (xadd (lconst a) (lconst b)) = true).
  { apply xadd_xok; [apply (aok_inv a Ha) | apply (aok_inv b Hb)]. }
  rewrite E' in E. injection E as <-. split; [now apply canonical_afd | now apply wf_afd].
Qed.

(* uniqueness: operand order and grouping (C04) *)
Theorem add_comm : forall a b r1 r2, add_operand_ok a = true -> add_operand_ok b = true ->
  e_add a b = Ok r1 -> e_add b a = Ok r2 -> expr_eqb r1 r2 = true.
Proof.
  intros a b r1 r2 Ha Hb E1 E2.
  destruct (e_add_spec a b Ha Hb) as (d1 & F1 & D1 & S1 & _).
  destruct (e_add_spec b a Hb Ha) as (d2 & F2 & D2 & S2 & _).
  destruct (aok_inv a Ha) as [Xa _]. destruct (aok_inv b Hb) as [Xb _].
  rewrite F1 in E1. rewrite F2 in E2. injection E1 as <-. injection E2 as <-.
  rewrite (xadd_comm (lconst b) (lconst a)) by assumption.
  apply afd_eq_of_sums; auto using xadd_xok.
  intros k Wk. etransitivity; [apply (S1 k Wk)|]. etransitivity; [apply qi_add_comm|]. symmetry. apply (S2 k Wk).
Qed.

Lemma lconst_afd : forall c d, xok c = true -> adict_ok d = true -> lconst (add_from_dict c d) = c.
Proof. intros. unfold lconst. now rewrite lin_of_afd. Qed.
Lemma lterms_afd : forall c d, xok c = true -> adict_ok d = true -> lterms (add_from_dict c d) = d.
Proof. intros. unfold lterms. now rewrite lin_of_afd. Qed.

Theorem add_assoc : forall a b c ab bc r1 r2,
  add_operand_ok a = true -> add_operand_ok b = true -> add_operand_ok c = true ->
  e_add a b = Ok ab -> e_add ab c = Ok r1 -> e_add b c = Ok bc -> e_add a bc = Ok r2 ->
  expr_eqb r1 r2 = true.
Proof.
  intros a b c ab bc r1 r2 Ha Hb Hc Eab E1 Ebc E2.
  destruct (aok_inv a Ha) as [Xa _]. destruct (aok_inv b Hb) as [Xb _]. destruct (aok_inv c Hc) as [Xc _].
  destruct (e_add_spec a b Ha Hb) as (dab & Fab & Dab & Sab & _). rewrite Fab in Eab. injection Eab as <-.
  destruct (e_add_spec b c Hb Hc) as (dbc & Fbc & Dbc & Sbc & _). rewrite Fbc in Ebc. injection Ebc as <-.
  assert (Xab : xok (xadd (lconst a) (lconst b)) = true) by auto using xadd_xok.
  assert (Xbc : xok (xadd (lconst b) (lconst c)) = true) by auto using xadd_xok.
  assert (Hab : add_operand_ok (add_from_dict (xadd (lconst a) (lconst b)) dab) = true) by now apply aok_of.
  assert (Hbc : add_operand_ok (add_from_dict (xadd (lconst b) (lconst c)) dbc) = true) by now apply aok_of.
  destruct (e_add_spec _ c Hab Hc) as (d1 & F1 & D1 & S1 & _). rewrite F1 in E1. injection E1 as <-.
  destruct (e_add_spec a _ Ha Hbc) as (d2 & F2 & D2 & S2 & _). rewrite F2 in E2. injection E2 as <-.
  rewrite !lconst_afd in * by assumption. rewrite !lterms_afd in S1, S2 by assumption.
  rewrite <- xadd_assoc by assumption.
  apply afd_eq_of_sums; auto using xadd_xok.
  intros k Wk. etransitivity; [apply (S1 k Wk)|]. etransitivity; [|symmetry; apply (S2 k Wk)].
  etransitivity; [apply qi_add_proper; [apply (Sab k Wk) | reflexivity]|].
  etransitivity; [|apply qi_add_proper; [reflexivity | symmetry; apply (Sbc k Wk)]].
  symmetry. apply qi_add_assoc.
Qed.

(* coefficient sums over a list of operands *)
Fixpoint lsum (l : list expr) (k : expr) : qi :=
  match l with [] => qi_zero | x :: r => qi_add (coefsum (lterms x) k) (lsum r k) end.
Fixpoint csum (l : list expr) : number :=
  match l with [] => NInt 0 | x :: r => xadd (lconst x) (csum r) end.

Lemma csum_xok : forall l, (forall x, In x l -> add_operand_ok x = true) -> xok (csum l) = true.
Proof.
  induction l as [|x l IH]; intros H; [reflexivity|]. cbn [csum]. apply xadd_xok.
  - apply (aok_inv x). apply H. left. reflexivity.
  - apply IH. intros y Hy. apply H. right. exact Hy.
Qed.

Lemma cdat_spec : forall coef d x, xok coef = true -> adict_ok d = true -> add_operand_ok x = true ->
  exists d', coef_dict_add_term coef d (NInt 1) x = Ok (xadd coef (lconst x), d') /\ adict_ok d' = true /\
    forall k, wf k = true -> qi_eq (coefsum d' k) (qi_add (coefsum d k) (coefsum (lterms x) k)).
Proof.
  intros coef d x Xc D Hx. destruct (aok_inv x Hx) as [Xx Dx].
  destruct (add_or_not x) as [(cx & dx & ->)|NA].
  - unfold lconst, lterms in *. cbn [lin_of fst snd] in *. cbn [coef_dict_add_term num_is_one Z.eqb].
    destruct (datms_ok dx d D Dx) as (d' & E & D' & S & _).
    rewrite E. cbn [bind]. rewrite (num_add_ok coef cx Xc Xx). cbn [bind]. exists d'. auto.
  - destruct (nonadd_cases x Hx NA) as [n EQ Xn | c t CT LIN T Xct Zc NN].
    + subst x. unfold lconst, lterms. cbn [lin_of fst snd coef_dict_add_term coefsum].
      rewrite (num_mul_ok (NInt 1) n (xok_int 1) Xn). cbn [bind]. rewrite xmul_1_l by assumption.
      rewrite (num_add_ok coef n Xc Xn). cbn [bind]. exists d. split; [reflexivity|]. split; [exact D|].
      intros k _. symmetry. apply qi_add_0_r.
    + unfold lconst, lterms. rewrite LIN. cbn [fst snd]. rewrite xadd_0_r by assumption.
      assert (CD : coef_dict_add_term coef d (NInt 1) x =
                   bind (num_mul (NInt 1) c) (fun m => bind (add_dict_add_term d m t) (fun d' => Ok (coef, d')))).
      { destruct x; try contradiction; cbn [coef_dict_add_term]; rewrite CT; reflexivity. }
      rewrite CD. rewrite (num_mul_ok (NInt 1) c (xok_int 1) Xct). cbn [bind]. rewrite xmul_1_l by assumption.
      destruct (datm_ok d c t D T Xct) as (d' & E & D' & S & _).
      rewrite E. cbn [bind]. exists d'. split; [reflexivity|]. split; [exact D'|].
      intros k Wk. etransitivity; [apply (S k Wk)|]. rewrite coefsum_single.
      apply qi_add_proper; [reflexivity | symmetry; apply qi_add_0_r].
Qed.

Lemma addv_fold_spec : forall l coef d, xok coef = true -> adict_ok d = true ->
  (forall x, In x l -> add_operand_ok x = true) ->
  exists c' d', fold_res (fun st x => coef_dict_add_term (fst st) (snd st) (NInt 1) x) l (coef, d) = Ok (c', d') /\
    xok c' = true /\ adict_ok d' = true /\
    qi_eq (qval c') (qi_add (qval coef) (qval (csum l))) /\
    forall k, wf k = true -> qi_eq (coefsum d' k) (qi_add (coefsum d k) (lsum l k)).
Proof.
  induction l as [|x l IH]; intros coef d Xc D H; cbn [fold_res].
  - exists coef, d. split; [reflexivity|]. split; [exact Xc|]. split; [exact D|]. split.
    + cbn [csum]. rewrite qval_int. symmetry. apply qi_add_0_r.
    + intros k _. cbn [lsum]. symmetry. apply qi_add_0_r.
  - assert (Hx : add_operand_ok x = true) by (apply H; left; reflexivity).
    destruct (aok_inv x Hx) as [Xx _].
    destruct (cdat_spec coef d x Xc D Hx) as (d1 & E1 & D1 & S1). cbn [fst snd]. rewrite E1. cbn [bind].
    destruct (IH (xadd coef (lconst x)) d1) as (c' & d' & E & X' & D' & V & S); auto using xadd_xok.
    { intros y Hy. apply H. right. exact Hy. }
    exists c', d'. split; [exact E|]. split; [exact X'|]. split; [exact D'|]. split.
    + etransitivity; [exact V|]. cbn [csum].
      assert (Xr : xok (csum l) = true) by (apply csum_xok; intros y Hy; apply H; right; exact Hy).
      rewrite (xadd_val coef (lconst x)), (xadd_val (lconst x) (csum l)) by assumption.
      symmetry. apply qi_add_assoc.
    + intros k Wk. etransitivity; [apply (S k Wk)|]. cbn [lsum].
      etransitivity; [apply qi_add_proper; [apply (S1 k Wk) | reflexivity]|]. symmetry. apply qi_add_assoc.
Qed.

Theorem e_addv_spec : forall l, (forall x, In x l -> add_operand_ok x = true) ->
  exists d, e_addv l = Ok (add_from_dict (csum l) d) /\ adict_ok d = true /\
    forall k, wf k = true -> qi_eq (coefsum d k) (lsum l k).
Proof.
  intros l H. unfold e_addv.
  destruct (addv_fold_spec l (NInt 0) [] (xok_int 0) aok_nil H) as (c' & d' & E & X' & D' & V & S).
  unfold adict in *. rewrite E. cbn [bind fst snd]. exists d'.
  assert (c' = csum l).
  { apply qval_inj; auto using csum_xok. etransitivity; [exact V|]. rewrite qval_int. apply qi_add_0_l. }
  subst c'. split; [reflexivity|]. split; [exact D'|].
  intros k Wk. etransitivity; [apply (S k Wk)|]. cbn [coefsum]. apply qi_add_0_l.
Qed.

Lemma lsum_perm : forall l l' k, Permutation l l' -> qi_eq (lsum l k) (lsum l' k).
Proof. intros l l' k. apply (qi_sum_perm _ (fun x => coefsum (lterms x) k) (fun l => lsum l k)). reflexivity. Qed.
Lemma csum_val : forall l, (forall x, In x l -> add_operand_ok x = true) ->
  qi_eq (qval (csum l)) (fold_right (fun x acc => qi_add (qval (lconst x)) acc) qi_zero l).
Proof.
  induction l as [|x l IH]; intros H; cbn [csum fold_right]; [reflexivity|].
  rewrite xadd_val.
  - apply qi_add_proper; [reflexivity|]. apply IH. intros y Hy. apply H. right. exact Hy.
  - apply (aok_inv x). apply H. left. reflexivity.
  - apply csum_xok. intros y Hy. apply H. right. exact Hy.
Qed.
Lemma csum_perm : forall l l', (forall x, In x l -> add_operand_ok x = true) -> Permutation l l' -> csum l = csum l'.
Proof.
  intros l l' H P.
  assert (H' : forall x, In x l' -> add_operand_ok x = true).
  { intros x Hx. apply H. eapply Permutation_in; [apply Permutation_sym; exact P | exact Hx]. }
  apply qval_inj; auto using csum_xok. rewrite (csum_val l H), (csum_val l' H').
  apply (qi_sum_perm _ (fun x => qval (lconst x))); [reflexivity | exact P].
Qed.

Theorem add_nary_perm : forall l l' r r', (forall x, In x l -> add_operand_ok x = true) ->
  Permutation l l' -> e_addv l = Ok r -> e_addv l' = Ok r' -> expr_eqb r r' = true.
Proof.
  intros l l' r r' H P E E'.
  assert (H' : forall x, In x l' -> add_operand_ok x = true).
  { intros x Hx. apply H. eapply Permutation_in; [apply Permutation_sym; exact P | exact Hx]. }
  destruct (e_addv_spec l H) as (d & F & D & S). destruct (e_addv_spec l' H') as (d' & F' & D' & S').
  rewrite F in E. rewrite F' in E'. injection E as <-. injection E' as <-.
  rewrite <- (csum_perm l l' H P).
  apply afd_eq_of_sums; auto using csum_xok.
  intros k Wk. etransitivity; [apply (S k Wk)|]. etransitivity; [apply lsum_perm; exact P|]. symmetry. apply (S' k Wk).
Qed.

(* n-ary add = nested binary add *)
Fixpoint add_fold (l : list expr) : res expr :=
  match l with
  | [] => Ok e_zero
  | x :: r => bind (add_fold r) (fun acc => e_add x acc)
  end.

Lemma aok_zero : add_operand_ok e_zero = true. Proof. reflexivity. Qed.

Lemma add_fold_spec : forall l, (forall x, In x l -> add_operand_ok x = true) ->
  exists d, add_fold l = Ok (add_from_dict (csum l) d) /\ adict_ok d = true /\
    forall k, wf k = true -> qi_eq (coefsum d k) (lsum l k).
Proof.
  induction l as [|x l IH]; intros H; cbn [add_fold csum lsum].
  - exists []. split; [reflexivity|]. split; [reflexivity|]. intros; reflexivity.
  - destruct IH as (d & E & D & S); [intros y Hy; apply H; right; exact Hy|].
    assert (Hx : add_operand_ok x = true) by (apply H; left; reflexivity).
    assert (Xr : xok (csum l) = true) by (apply csum_xok; intros y Hy; apply H; right; exact Hy).
    rewrite E. cbn [bind].
    destruct (e_add_spec x (add_from_dict (csum l) d) Hx (aok_of _ _ Xr D)) as (d' & E' & D' & S' & _).
    rewrite lconst_afd in E' by assumption. rewrite lterms_afd in S' by assumption.
    exists d'. split; [exact E'|]. split; [exact D'|].
    intros k Wk. etransitivity; [apply (S' k Wk)|]. apply qi_add_proper; [reflexivity | apply (S k Wk)].
Qed.

Theorem add_nary_binary : forall l r r', (forall x, In x l -> add_operand_ok x = true) ->
  e_addv l = Ok r -> add_fold l = Ok r' -> expr_eqb r r' = true.
Proof.
  intros l r r' H E E'.
  destruct (e_addv_spec l H) as (d & F & D & S). destruct (add_fold_spec l H) as (d' & F' & D' & S').
  rewrite F in E. rewrite F' in E'. injection E as <-. injection E' as <-.
  apply afd_eq_of_sums; auto using csum_xok.
  intros k Wk. etransitivity; [apply (S k Wk)|]. symmetry. apply (S' k Wk).
Qed.
