(* Reasoning about Add's unordered dictionary: [umap_find] / [umap_eqb] when eq is an equivalence
   on the keys that respects the hash, and the keys of each dictionary are pairwise not eq. *)
From SE Require Export Expr.Unfold.
From Coq Require Import Lia Permutation.
Local Open Scope N_scope.

Lemma xor_fold_perm : forall {A} (f : A -> N) d1 d2, Permutation d1 d2 ->
  forall s, fold_left (fun seed p => N.lxor seed (f p)) d1 s =
            fold_left (fun seed p => N.lxor seed (f p)) d2 s.
Proof.
  induction 1; intros s; cbn [fold_left].
  - reflexivity.
  - apply IHPermutation.
  - f_equal. rewrite !N.lxor_assoc. f_equal. apply N.lxor_comm.
  - rewrite IHPermutation1. apply IHPermutation2.
Qed.

Lemma xor_fold_forall2 : forall {A} (f : A -> N) d1 d2, Forall2 (fun p q => f p = f q) d1 d2 ->
  forall s, fold_left (fun seed p => N.lxor seed (f p)) d1 s =
            fold_left (fun seed p => N.lxor seed (f p)) d2 s.
Proof. induction 1; intros s; cbn [fold_left]; [reflexivity|]. rewrite H. apply IHForall2. Qed.

Lemma Forall2_in_r : forall {A B} (R : A -> B -> Prop) l1 l2 y,
  Forall2 R l1 l2 -> In y l2 -> exists x, In x l1 /\ R x y.
Proof.
  induction 1; cbn; intros Hy; [contradiction|].
  destruct Hy as [<-|Hy]; [exists x; auto|]. destruct (IHForall2 Hy) as [x' [? ?]]. exists x'; auto.
Qed.
Lemma Forall2_in_l : forall {A B} (R : A -> B -> Prop) l1 l2 x,
  Forall2 R l1 l2 -> In x l1 -> exists y, In y l2 /\ R x y.
Proof.
  induction 1; cbn; intros Hx; [contradiction|].
  destruct Hx as [<-|Hx]; [exists y; auto|]. destruct (IHForall2 Hx) as [y' [? ?]]. exists y'; auto.
Qed.
Lemma Forall2_impl_in : forall {A B} (R R' : A -> B -> Prop) l1 l2,
  (forall x y, In x l1 -> In y l2 -> R x y -> R' x y) -> Forall2 R l1 l2 -> Forall2 R' l1 l2.
Proof.
  intros A B R R' l1 l2 H F. induction F; constructor.
  - apply H; [left; reflexivity | left; reflexivity | assumption].
  - apply IHF. intros x' y' Hx Hy. apply H; right; assumption.
Qed.
Lemma Forall2_length' : forall {A B} (R : A -> B -> Prop) l1 l2, Forall2 R l1 l2 -> length l1 = length l2.
Proof. induction 1; cbn; congruence. Qed.

Lemma find_some_in : forall r k d v, umap_find r k d = Some v ->
  exists k', In (k', v) d /\ hash k' = hash k /\ r k' k = true.
Proof.
  induction d as [|[k0 v0] d IH]; cbn [umap_find]; intros v H; [discriminate|].
  destruct ((hash k0 =? hash k) && r k0 k) eqn:T.
  - inversion H; subst. apply andb_prop in T. destruct T as [T1 T2]. apply N.eqb_eq in T1.
    exists k0. cbn. auto.
  - destruct (IH v H) as [k' [? ?]]. exists k'. cbn. tauto.
Qed.

Lemma pairwise_ne_cons : forall x l, pairwise_ne (x :: l) = true ->
  (forall y, In y l -> expr_eqb x y = false) /\ pairwise_ne l = true.
Proof.
  intros x l H. cbn [pairwise_ne] in H. apply andb_prop in H. destruct H as [H1 H2]. split; [|exact H2].
  intros y Hy. eapply forallb_forall in H1; [|exact Hy]. destruct (expr_eqb x y); [discriminate|reflexivity].
Qed.

Definition entry_rel (p q : expr * number) : Prop :=
  expr_eqb (fst q) (fst p) = true /\ num_eqb (snd p) (snd q) = true.

Section Dict.
  Variable P : expr -> Prop.
  Hypothesis Prefl : forall x, P x -> expr_eqb x x = true.
  Hypothesis Psym : forall x y, P x -> P y -> expr_eqb x y = true -> expr_eqb y x = true.
  Hypothesis Ptrans : forall x y z, P x -> P y -> P z ->
    expr_eqb x y = true -> expr_eqb y z = true -> expr_eqb x z = true.
  Hypothesis Phash : forall x y, P x -> P y -> expr_eqb x y = true -> hash x = hash y.

  Definition dict_ok (d : list (expr * number)) : Prop :=
    (forall p, In p d -> P (fst p) /\ num_wf (snd p) = true) /\ pairwise_ne (map fst d) = true.

  (* the conditions on the keys only *)
  Definition kok (d : list (expr * number)) : Prop :=
    (forall p, In p d -> P (fst p)) /\ pairwise_ne (map fst d) = true.

  Lemma dok_kok : forall d, dict_ok d -> kok d.
  Proof. intros d [K NE]. split; [intros p Hp; apply (K p Hp) | exact NE]. Qed.

  Lemma kok_tail : forall p d, kok (p :: d) -> kok d.
  Proof.
    intros p d [H1 H2]. split; [intros; apply H1; right; assumption|].
    cbn [map] in H2. apply pairwise_ne_cons in H2. apply H2.
  Qed.
  Lemma dict_ok_tail : forall p d, dict_ok (p :: d) -> dict_ok d.
  Proof.
    intros p d OK. split; [intros; apply (proj1 OK); right; assumption|].
    apply (kok_tail p d (dok_kok _ OK)).
  Qed.

  (* two entries with eq keys are the same entry *)
  Lemma kok_unique : forall d p q, kok d -> In p d -> In q d ->
    expr_eqb (fst p) (fst q) = true -> p = q.
  Proof using Psym.
    induction d as [|e d IH]; intros p q OK Hp Hq E; [contradiction|].
    pose proof (kok_tail _ _ OK) as OK'. destruct OK as [K NE].
    cbn [map] in NE. apply pairwise_ne_cons in NE. destruct NE as [NE _].
    destruct Hp as [->|Hp]; destruct Hq as [->|Hq].
    - reflexivity.
    - rewrite (NE (fst q)) in E by (apply in_map; assumption). discriminate.
    - apply Psym in E; [| apply K; right; assumption | apply K; left; reflexivity].
      rewrite (NE (fst p)) in E by (apply in_map; assumption). discriminate.
    - apply IH; assumption.
  Qed.

  Lemma find_in : forall d k k' v, dict_ok d -> P k -> In (k', v) d -> expr_eqb k' k = true ->
    umap_find expr_eqb k d = Some v.
  Proof using Phash Psym Ptrans.
    induction d as [|[k0 v0] d IH]; intros k k' v OK Pk Hin E; [contradiction|].
    cbn [umap_find].
    assert (Pk' : P k') by (apply (proj1 OK (k', v)); assumption).
    assert (Pk0 : P k0) by (apply (proj1 OK (k0, v0)); left; reflexivity).
    destruct ((hash k0 =? hash k) && expr_eqb k0 k) eqn:T.
    - apply andb_prop in T. destruct T as [_ T].
      assert (E2 : expr_eqb k0 k' = true).
      { apply (Ptrans k0 k k'); auto. }
      assert (Q : (k0, v0) = (k', v)).
      { apply (kok_unique ((k0, v0) :: d)); auto using dok_kok. left; reflexivity. }
      inversion Q; subst. reflexivity.
    - destruct Hin as [Q|Hin].
      + inversion Q; subst. rewrite E, (Phash k' k) in T by auto. rewrite N.eqb_refl in T. discriminate.
      + apply (IH k k' v); auto. eapply dict_ok_tail; eassumption.
  Qed.

  Lemma umap_eqb_spec : forall d1 d2, dict_ok d1 -> dict_ok d2 ->
    (umap_eqb expr_eqb d1 d2 = true <->
     length d1 = length d2 /\ forall p, In p d1 -> exists q, In q d2 /\ entry_rel p q).
  Proof using Phash Psym Ptrans.
    intros d1 d2 OK1 OK2. unfold umap_eqb. rewrite andb_true_iff, Nat.eqb_eq, forallb_forall.
    split; intros [L H]; (split; [exact L|]); intros p Hp.
    - specialize (H p Hp). destruct (umap_find expr_eqb (fst p) d2) as [v|] eqn:F; [|discriminate].
      apply find_some_in in F. destruct F as [k' [Hin [_ E]]].
      exists (k', v). unfold entry_rel. cbn [fst snd]. auto.
    - destruct (H p Hp) as [[k' v] [Hq [E1 E2]]]. cbn [fst snd] in *.
      rewrite (find_in d2 (fst p) k' v); auto. apply (proj1 OK1 p Hp).
  Qed.

  (* the entries of d1 can be matched injectively with entries of d2 *)
  Lemma matching : forall l1 l2, dict_ok l1 -> (forall q, In q l2 -> P (fst q)) ->
    (forall p, In p l1 -> exists q, In q l2 /\ entry_rel p q) ->
    exists l2' rest, Permutation l2 (l2' ++ rest) /\ Forall2 entry_rel l1 l2'.
  Proof using Psym Ptrans.
    induction l1 as [|x t IH]; intros l2 OK K2 H.
    - exists [], l2. split; [apply Permutation_refl | constructor].
    - destruct (H x (or_introl eq_refl)) as [y [Hy Rxy]].
      apply in_split in Hy. destruct Hy as [a [b ->]].
      pose proof (dict_ok_tail _ _ OK) as OK'. destruct OK as [K NE].
      cbn [map] in NE. apply pairwise_ne_cons in NE. destruct NE as [NE _].
      destruct (IH (a ++ b) OK') as [l2'' [rest [Pm F]]].
      + intros q Hq. apply K2. apply in_app_or in Hq. apply in_or_app. cbn. tauto.
      + intros p Hp. destruct (H p (or_intror Hp)) as [q [Hq Rpq]]. exists q. split; [|exact Rpq].
        apply in_app_or in Hq. apply in_or_app. destruct Hq as [Hq|[Hq|Hq]]; auto.
        exfalso. subst q. destruct Rxy as [E1 _]. destruct Rpq as [E2 _].
        assert (Py : P (fst y)) by (apply K2; apply in_or_app; cbn; auto).
        assert (Px : P (fst x)) by (apply K; left; reflexivity).
        assert (Pp : P (fst p)) by (apply K; right; assumption).
        assert (E : expr_eqb (fst x) (fst p) = true).
        { apply (Ptrans (fst x) (fst y) (fst p)); auto. }
        rewrite (NE (fst p)) in E by (apply in_map; assumption). discriminate.
      + exists (y :: l2''), rest. split; [|constructor; assumption].
        cbn [app]. apply Permutation_sym. apply Permutation_cons_app. apply Permutation_sym. exact Pm.
  Qed.

  Lemma umap_eqb_matching : forall d1 d2, dict_ok d1 -> dict_ok d2 ->
    umap_eqb expr_eqb d1 d2 = true ->
    exists l2', Permutation d2 l2' /\ Forall2 entry_rel d1 l2'.
  Proof using Phash Psym Ptrans.
    intros d1 d2 OK1 OK2 H. apply umap_eqb_spec in H; auto. destruct H as [L H].
    destruct (matching d1 d2 OK1) as [l2' [rest [Pm F]]]; auto.
    { intros q Hq. apply (proj1 OK2 q Hq). }
    exists l2'. split; [|exact F].
    assert (rest = []).
    { pose proof (Permutation_length Pm) as PL. pose proof (Forall2_length' _ _ _ F) as FL.
      rewrite app_length in PL. destruct rest; [reflexivity | cbn in PL; lia]. }
    subst. rewrite app_nil_r in Pm. exact Pm.
  Qed.

  Lemma umap_eqb_refl : forall d, dict_ok d -> umap_eqb expr_eqb d d = true.
  Proof using Phash Prefl Psym Ptrans.
    intros d OK. apply umap_eqb_spec; auto. split; [reflexivity|].
    intros p Hp. exists p. split; [exact Hp|]. destruct (proj1 OK p Hp) as [Pp Wp].
    split; [apply Prefl; exact Pp | apply num_eqb_refl; exact Wp].
  Qed.

  Lemma umap_eqb_sym : forall d1 d2, dict_ok d1 -> dict_ok d2 ->
    umap_eqb expr_eqb d1 d2 = true -> umap_eqb expr_eqb d2 d1 = true.
  Proof using Phash Psym Ptrans.
    intros d1 d2 OK1 OK2 H.
    destruct (umap_eqb_matching d1 d2 OK1 OK2 H) as [l2' [Pm F]].
    apply umap_eqb_spec in H; auto. destruct H as [L _].
    apply umap_eqb_spec; auto. split; [symmetry; exact L|].
    intros q Hq. assert (Hq' : In q l2') by (eapply Permutation_in; eassumption).
    destruct (Forall2_in_r _ _ _ _ F Hq') as [p [Hp [E1 E2]]].
    exists p. split; [exact Hp|]. split.
    - apply Psym; auto; [apply (proj1 OK2 q Hq) | apply (proj1 OK1 p Hp)].
    - rewrite num_eqb_sym. exact E2.
  Qed.

  Lemma umap_eqb_trans : forall d1 d2 d3, dict_ok d1 -> dict_ok d2 -> dict_ok d3 ->
    umap_eqb expr_eqb d1 d2 = true -> umap_eqb expr_eqb d2 d3 = true ->
    umap_eqb expr_eqb d1 d3 = true.
  Proof using Phash Psym Ptrans.
    intros d1 d2 d3 OK1 OK2 OK3 H12 H23.
    apply umap_eqb_spec in H12; auto. apply umap_eqb_spec in H23; auto. apply umap_eqb_spec; auto.
    destruct H12 as [L12 H12]. destruct H23 as [L23 H23]. split; [congruence|].
    intros p Hp. destruct (H12 p Hp) as [q [Hq [E1 E2]]]. destruct (H23 q Hq) as [r [Hr [E3 E4]]].
    exists r. split; [exact Hr|].
    destruct (proj1 OK1 p Hp), (proj1 OK2 q Hq), (proj1 OK3 r Hr).
    split; [apply (Ptrans (fst r) (fst q) (fst p)); auto | apply (num_eqb_trans (snd p) (snd q) (snd r)); auto].
  Qed.

  Lemma umap_eqb_hash : forall d1 d2, dict_ok d1 -> dict_ok d2 ->
    umap_eqb expr_eqb d1 d2 = true -> forall s,
    fold_left (fun seed p => N.lxor seed (hash_combine (hash (fst p)) (hash_num (snd p)))) d1 s =
    fold_left (fun seed p => N.lxor seed (hash_combine (hash (fst p)) (hash_num (snd p)))) d2 s.
  Proof using Phash Psym Ptrans.
    intros d1 d2 OK1 OK2 H s.
    destruct (umap_eqb_matching d1 d2 OK1 OK2 H) as [l2' [Pm F]].
    rewrite (xor_fold_perm _ d2 l2' Pm).
    apply (xor_fold_forall2 (fun p => hash_combine (hash (fst p)) (hash_num (snd p)))).
    apply (Forall2_impl_in entry_rel); [|exact F]. intros p q Hp Hq [E1 E2].
    destruct (proj1 OK1 p Hp) as [Pp Wp].
    destruct (proj1 OK2 q) as [Pq Wq]; [eapply Permutation_in; [apply Permutation_sym; exact Pm | exact Hq]|].
    rewrite (Phash (fst q) (fst p)) by auto. rewrite (num_eqb_hash (snd p) (snd q)) by auto. reflexivity.
  Qed.

End Dict.
