(* C07 -- value preservation of pow(a, n) for an Integer n and of div on the rational-function
   fragment.  In the total semantics (1/0 = 0) the laws (x*y)^n = x^n * y^n and (x^a)^n = x^(a*n)
   hold unconditionally; only the merging of equal bases (x^a * x^b = x^(a+b)) needs definedness. *)
From SE Require Export Expr.DenoteMul Expr.ArithPowProofs.
From SE Require Import Num.NumSpec Num.NumQi Num.NumC05 Expr.CmpProofs.
From Coq Require Import QArith Lia Permutation Setoid Morphisms.
Local Open Scope Z_scope.

Lemma qi_zero_dec : forall x : qi, {qi_is_zero x} + {~ qi_is_zero x}.
Proof.
  intros [a b]. destruct (Qeq_dec a 0) as [A|A]; destruct (Qeq_dec b 0) as [B|B].
  - left. split; assumption.
  - right. intros [_ H]. contradiction.
  - right. intros [H _]. contradiction.
  - right. intros [H _]. contradiction.
Qed.

Lemma qi_inv_zero : forall x, qi_is_zero x -> qi_eq (qi_inv x) qi_zero.
Proof.
  intros [a b] [A B]. cbn [fst snd] in A, B. unfold qi_inv. qi_unfold.
  assert (N : (a * a + b * b == 0)%Q) by (rewrite A, B; ring).
  split; unfold Qdiv; rewrite N; change (/ 0)%Q with 0%Q; ring.
Qed.

Lemma qi_mul_zero_r' : forall x y, qi_is_zero y -> qi_is_zero (qi_mul x y).
Proof. intros [a b] [c d] [C D]. cbn [fst snd] in C, D. unfold qi_is_zero. qi_unfold. rewrite C, D. split; ring. Qed.
Lemma qi_mul_zero_l' : forall x y, qi_is_zero x -> qi_is_zero (qi_mul x y).
Proof. intros [a b] [c d] [A B]. cbn [fst snd] in A, B. unfold qi_is_zero. qi_unfold. rewrite A, B. split; ring. Qed.

Lemma qi_inv_mul_total : forall x y, qi_eq (qi_inv (qi_mul x y)) (qi_mul (qi_inv x) (qi_inv y)).
Proof.
  intros x y. destruct (qi_zero_dec x) as [X|X]; [|destruct (qi_zero_dec y) as [Y|Y]].
  - rewrite (qi_inv_zero _ (qi_mul_zero_l' x y X)). rewrite (qi_inv_zero x X). symmetry. apply qi_mul_0_l.
  - rewrite (qi_inv_zero _ (qi_mul_zero_r' x y Y)). rewrite (qi_inv_zero y Y).
    symmetry. rewrite qi_mul_comm. apply qi_mul_0_l.
  - now apply qi_inv_mul.
Qed.

Lemma powz_mul_base : forall x y n, qi_eq (qi_powz (qi_mul x y) n) (qi_mul (qi_powz x n) (qi_powz y n)).
Proof.
  intros x y [|p|p]; cbn [qi_powz].
  - symmetry. apply qi_mul_1_l.
  - apply qi_pow_nat_mul_base.
  - rewrite qi_pow_nat_mul_base. apply qi_inv_mul_total.
Qed.

Lemma pow_nat_one : forall k, qi_eq (qi_pow_nat qi_one k) qi_one.
Proof. induction k as [|k IH]; cbn [qi_pow_nat]; [reflexivity|]. rewrite IH. apply qi_mul_1_l. Qed.
Lemma powz_one : forall n, qi_eq (qi_powz qi_one n) qi_one.
Proof. intros [|p|p]; cbn [qi_powz]; [reflexivity | apply pow_nat_one |]. rewrite pow_nat_one. apply qi_inv_one. Qed.

Lemma pow_nat_zero : forall x k, qi_is_zero x -> (0 < k)%nat -> qi_is_zero (qi_pow_nat x k).
Proof. intros x [|k] X L; [lia|]. cbn [qi_pow_nat]. now apply qi_mul_zero_l'. Qed.

Lemma powz_zero_base : forall x n, qi_is_zero x -> n <> 0 -> qi_is_zero (qi_powz x n).
Proof.
  intros x [|p|p] X NZ; [contradiction| |]; cbn [qi_powz].
  - apply pow_nat_zero; [exact X | lia].
  - unfold qi_is_zero. apply qi_inv_zero. apply pow_nat_zero; [exact X | lia].
Qed.

Lemma powz_nz : forall x n, ~ qi_is_zero x -> ~ qi_is_zero (qi_powz x n).
Proof.
  intros x [|p|p] X; cbn [qi_powz].
  - intros [H _]. cbn in H. discriminate H.
  - now apply qi_pow_nat_nonzero.
  - intros H. pose proof (qi_pow_nat_nonzero x (Pos.to_nat p) X) as N.
    pose proof (qi_inv_l _ N) as I. unfold qi_is_zero in H. rewrite H in I. rewrite qi_mul_0_l in I.
    destruct I as [I _]. cbn in I. discriminate I.
Qed.

(* (x^a)^n = x^(a*n), for a non-zero base by induction on n; for a zero base both sides are 0 or 1 *)
Lemma powz_powz_nz : forall x a n, ~ qi_is_zero x -> qi_eq (qi_powz (qi_powz x a) n) (qi_powz x (a * n)).
Proof.
  intros x a n X. pose proof (powz_nz x a X) as XA. revert n. apply Z.peano_ind.
  - rewrite Z.mul_0_r. reflexivity.
  - intros n IH. replace (Z.succ n) with (n + 1) by lia. rewrite powz_succ by assumption.
    rewrite IH. replace (a * (n + 1)) with (a * n + a) by lia. symmetry. now apply powz_add_nz.
  - intros n IH. apply (qi_mul_cancel_r _ _ (qi_powz x a) XA).
    rewrite <- powz_succ by assumption. replace (Z.pred n + 1) with n by lia. rewrite IH.
    rewrite <- powz_add_nz by assumption. replace (a * Z.pred n + a) with (a * n) by lia. reflexivity.
Qed.

Lemma powz_powz : forall x a n, qi_eq (qi_powz (qi_powz x a) n) (qi_powz x (a * n)).
Proof.
  intros x a n. destruct (qi_zero_dec x) as [X|X]; [|now apply powz_powz_nz].
  destruct (Z.eq_dec a 0) as [->|A].
  - cbn [qi_powz Z.mul]. apply powz_one.
  - destruct (Z.eq_dec n 0) as [->|N]; [rewrite Z.mul_0_r; reflexivity|].
    pose proof (powz_zero_base x a X A) as ZA.
    pose proof (powz_zero_base _ n ZA N) as L. pose proof (powz_zero_base x (a * n) X ltac:(lia)) as R.
    unfold qi_is_zero in L, R. now rewrite L, R.
Qed.

Lemma powz_m1 : forall n, qi_eq (qi_powz (inject_Z (-1), 0%Q) n) (if Z.even n then qi_one else (inject_Z (-1), 0%Q)).
Proof.
  set (m := (inject_Z (-1), 0%Q) : qi).
  assert (NZ : ~ qi_is_zero m) by (intros [H _]; cbn in H; discriminate H).
  assert (MM : qi_eq (qi_mul m m) qi_one) by (unfold m; qi_unfold; split; reflexivity).
  apply Z.peano_ind.
  - reflexivity.
  - intros n IH. replace (Z.succ n) with (n + 1) by lia. rewrite powz_succ by assumption. rewrite IH.
    rewrite Z.add_1_r, Z.even_succ. rewrite <- Z.negb_even. destruct (Z.even n); cbn [negb]; [apply qi_mul_1_l | exact MM].
  - intros n IH. apply (qi_mul_cancel_r _ _ m NZ). rewrite <- powz_succ by assumption.
    replace (Z.pred n + 1) with n by lia. rewrite IH.
    rewrite Z.even_pred. rewrite <- Z.negb_even. destruct (Z.even n); cbn [negb]; [symmetry; exact MM | symmetry; apply qi_mul_1_l].
Qed.

Lemma npow_val : forall c n, xok c = true -> npow_ok c n = true -> n <> 0 ->
  qi_eq (qval (npow c n)) (qi_powz (qval c) n).
Proof.
  intros c n Xc H NZ. unfold npow.
  destruct (n =? 1) eqn:N1; [apply Z.eqb_eq in N1; subst n; symmetry; apply qi_powz_1|].
  destruct (SE.Expr.Cmp.num_eqb c (NInt 0)) eqn:C0.
  { apply cmp_num_eqb_eq in C0; auto. subst c. rewrite !qval_int. symmetry.
    apply (powz_zero_base (inject_Z 0, 0%Q) n); [split; reflexivity | exact NZ]. }
  destruct (SE.Expr.Cmp.num_eqb c (NInt (-1))) eqn:C1; [|apply (xpow_spec c n Xc H)].
  apply cmp_num_eqb_eq in C1; auto. subst c. rewrite qval_int.
  pose proof (powz_m1 n) as M. destruct (Z.even n); rewrite qval_int; symmetry; exact M.
Qed.

Section PowSound.
  Variable rho : list N -> qi.
  Variable rhoc : list N -> qi.
  Notation den := (denote rho rhoc).
  Notation wp := (wprod rho rhoc).
  Notation ddfn := (ddfn rho rhoc).

  (* the value of the exponent-scaled dictionary *)
  Lemma wp_pow_entries : forall d n, mentries_ok d = true -> ddfn d = true ->
    qi_eq (wp (pow_entries d n)) (qi_powz (wp d) n).
  Proof.
    induction d as [|[k v] d IH]; intros n D DD.
    - unfold pow_entries, wprod. cbn [map fold_right]. symmetry. apply powz_one.
    - cbn [mentries_ok forallb] in D. apply andb_prop in D. destruct D as [E D].
      unfold DenoteMul.ddfn in DD. cbn [forallb fst snd] in DD. apply andb_prop in DD. destruct DD as [PK DD].
      destruct (pow_dfn_int _ _ PK) as (z & -> & _).
      unfold pow_entries. cbn [map fst snd num_of]. rewrite !wp_cons. cbn [fst snd qpow]. fold (pow_entries d n).
      rewrite powz_mul_base. rewrite (IH n D DD). change (xmul (NInt z) (NInt n)) with (NInt (z * n)). cbn [qpow].
      apply qi_mul_proper; [symmetry; apply powz_powz | reflexivity].
  Qed.

  Definition pow_dfn_ok (a : expr) (n : Z) : bool := ddfn (pow_entries (mterms a) n).

  Lemma pow_int_result_value : forall a n, pow_operand_ok a n = true ->
    mul_dfn rho rhoc a = true -> pow_dfn_ok a n = true ->
    qi_eq (den (pow_int_result a n)) (qi_powz (den a) n) /\ mul_dfn rho rhoc (pow_int_result a n) = true.
  Proof.
    intros a n H Da Dn. unfold pow_operand_ok in H. apply andb_prop in H. destruct H as [Ha Hn]. unfold pow_int_result.
    destruct (Z.eq_dec n 0) as [->|NZ]; [split; reflexivity|]. rewrite (proj2 (Z.eqb_neq n 0) NZ).
    destruct (Z.eq_dec n 1) as [->|N1]; [split; [symmetry; apply qi_powz_1 | exact Da]|].
    rewrite (proj2 (Z.eqb_neq n 1) N1).
    destruct (mul_operand_shape a Ha) as [(c & -> & Xc)|[(c & d & -> & Xc & D)|[(b & q & -> & T & Q)|T]]].
    - split; [now apply npow_val | reflexivity].
    - unfold mul_dfn, mterms in Da. cbn [mlin snd] in Da. unfold pow_dfn_ok, mterms in Dn. cbn [mlin snd] in Dn.
      destruct (rE_pow_num 0 c n Xc Hn NZ) as [_ Xr].
      pose proof (pow_entries_ok d n D NZ) as PE.
      destruct (dmerge_value rho rhoc (pow_entries d n) [] eq_refl PE eq_refl Dn) as [V2 D2].
      split.
      + rewrite den_mfd by assumption. rewrite V2, (npow_val c n Xc Hn NZ). rewrite (wp_pow_entries d n D Da).
        rewrite denote_EMul'. rewrite powz_mul_base. apply qi_mul_proper; [|reflexivity].
        unfold wprod at 1. cbn [fold_right]. apply qi_mul_1_l.
      + unfold mul_dfn. apply mfd_dfn; auto. apply dmerge_entries; auto.
    - unfold mul_dfn, mterms in Da. cbn [mlin snd] in Da. unfold DenoteMul.ddfn in Da. cbn [forallb fst snd] in Da. rewrite andb_true_r in Da.
      destruct (pow_dfn_int _ _ Da) as (z & Ez & _). injection Ez as ->.
      unfold pow_dfn_ok, mterms, pow_entries in Dn. cbn [mlin snd map fst num_of] in Dn.
      cbn [num_of]. change (xmul (NInt z) (NInt n)) with (NInt (z * n)) in *. cbn [SE.Expr.Cmp.num_eqb].
      destruct (z * n =? 1) eqn:ZN.
      + split; [|unfold mul_dfn; rewrite (mterms_atom b T); reflexivity].
        apply Z.eqb_eq in ZN. cbn [denote qpow]. rewrite powz_powz, ZN. symmetry. apply qi_powz_1.
      + split; [cbn [denote qpow]; symmetry; apply powz_powz | exact Dn].
    - destruct (atom_ok_inv _ T) as (_ & _ & A).
      assert (R : qi_eq (den (EPow a (ENum (NInt n)))) (qi_powz (den a) n) /\ mul_dfn rho rhoc (EPow a (ENum (NInt n))) = true).
      { split; [reflexivity|].
        unfold pow_dfn_ok in Dn. rewrite (mterms_atom a T) in Dn. unfold pow_entries in Dn. cbn [map fst snd num_of e_one e_int] in Dn.
        change (xmul (NInt 1) (NInt n)) with (NInt (1 * n)) in Dn. rewrite Z.mul_1_l in Dn. exact Dn. }
      destruct a; try discriminate A; exact R.
  Qed.

  Theorem pow_int_sound : forall fuel a n r, pow_operand_ok a n = true ->
    mul_dfn rho rhoc a = true -> pow_dfn_ok a n = true ->
    e_pow fuel a (ENum (NInt n)) = Ok r ->
    qi_eq (den r) (qi_powz (den a) n) /\ mul_dfn rho rhoc r = true.
  Proof.
    intros fuel a n r H Da Dn E.
    rewrite (e_pow_det _ _ _ _ _ _ E (e_pow_int_spec fuel a n H)). now apply pow_int_result_value.
  Qed.
End PowSound.

Lemma powz_m1_exp : forall x, qi_eq (qi_powz x (-1)) (qi_inv x).
Proof. intros x. cbn [qi_powz]. change (Pos.to_nat 1) with 1%nat. cbn [qi_pow_nat]. apply qi_inv_proper. apply qi_mul_1_r. Qed.

Theorem div_sound : forall (rho rhoc : list N -> qi) fuel a b r,
  mul_operand_ok a = true -> pow_operand_ok b (-1) = true ->
  mul_dfn rho rhoc a = true -> mul_dfn rho rhoc b = true -> pow_dfn_ok rho rhoc b (-1) = true ->
  e_div fuel a b = Ok r ->
  qi_eq (denote rho rhoc r) (qi_mul (denote rho rhoc a) (qi_inv (denote rho rhoc b))) /\ mul_dfn rho rhoc r = true.
Proof.
  intros rho rhoc fuel a b r Ha Hb Da Db Dp E. destruct (e_div_inv fuel a b r Hb E) as (p & P & M).
  destruct (pow_int_sound rho rhoc fuel b (-1) p Hb Db Dp P) as [Vp Dpp].
  destruct (pow_int_canonical fuel b (-1) p Hb P) as (Hp & _ & _).
  destruct (mul_sound rho rhoc fuel a p r Ha Hp Da Dpp M) as [V D]. split; [|exact D].
  rewrite V, Vp. apply qi_mul_proper; [reflexivity | apply powz_m1_exp].
Qed.
