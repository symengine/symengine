(* The branches of [step_datn] and [step_pow] under names of their own.  In Arith.v they are local
   definitions inside one body; here each is a function of the values it uses, so that a proof
   about the step function analyses each branch once. *)
From SE Require Export Expr.Arith.
Local Open Scope Z_scope.
Local Open Scope res_scope.

Section Parts.
  Variable rec : call -> res ret.

  (* the value r of a numeric power multiplied into (coef, d): a Number goes to the coefficient,
     the factors of a Mul are added one by one *)
  Definition datn_result (coef : number) (d : mdict) (r : expr) (other : res (number * mdict))
    : res (number * mdict) :=
    match r with
    | ENum rn => do c <- num_mul coef rn; Ok (c, d)
    | EMul mc md => do c <- num_mul coef mc; datn_loop rec c d md
    | _ => other
    end.

  (* [step_datn] when t is not a key of d *)
  Definition datn_absent (coef : number) (d : mdict) (exp t : expr) : res (number * mdict) :=
    let ins := Ok (coef, minsert t exp d) in
    match t with
    | ENum tn =>
        if num_is_exact tn then
          match exp with
          | ENum (NInt e) => do c <- coef_times_pow coef tn (NInt e); Ok (c, d)
          | ENum (NRat en ed) =>
              match tn with
              | NCplx _ _ _ _ => ins
              | _ => do r <- rat_pow rec tn en ed; datn_result coef d r ins
              end
          | ENum en =>
              if negb (num_is_exact en) then do c <- coef_times_pow coef tn en; Ok (c, d)
              else ins
          | _ => ins
          end
        else
          match exp with
          | ENum en => do c <- coef_times_pow coef tn en; Ok (c, d)
          | _ => ins
          end
    | _ => ins
    end.

  (* [step_datn] when t is found under the key k: newv is the sum of the exponents, d1 the
     dictionary with newv stored, dE the dictionary with the entry erased *)
  Definition datn_tail (coef : number) (t : expr) (d1 dE : mdict) (k newv : expr)
    : res (number * mdict) :=
    match newv with
    | ENum n =>
        if num_is_zero n then do c <- coef_times_pow coef n (NInt 0); Ok (c, dE)
        else
          match k with
          | EMul mc md =>
              if is_Integer newv || (num_neq_int mc 1 && num_neq_int mc (-1))
              then rS rec (CPowerNum mc md coef dE n)
              else Ok (coef, d1)
          | _ =>
              if expr_eqb k e_E then
                (if negb (num_is_exact n) then ErrExn EXN_LIBM else Ok (coef, d1))
              else
                match t with
                | ENum tn =>
                    if negb (num_is_exact n) || negb (num_is_exact tn) then
                      do c <- coef_times_pow coef tn n; Ok (c, dE)
                    else Ok (coef, d1)
                | _ => Ok (coef, d1)
                end
          end
    | _ => Ok (coef, d1)
    end.

  Definition datn_pow_key (coef : number) (dE : mdict) (k newv : expr) (tail : res (number * mdict))
    : res (number * mdict) :=
    match k with
    | EPow kb ke => do e' <- rE rec (CMul ke newv); rS rec (CDatn coef dE e' kb)
    | _ => tail
    end.

  Definition datn_found (coef : number) (t : expr) (dE : mdict) (newv : expr)
    (tail pow_key : res (number * mdict)) : res (number * mdict) :=
    match newv with
    | ENum (NInt z) =>
        match t with
        | ENum tn =>
            if num_is_exact tn then
              (if negb (z =? 0) then do c <- coef_times_pow coef tn (NInt z); Ok (c, dE)
               else Ok (coef, dE))
            else if z =? 0 then Ok (coef, dE) else pow_key
        | _ => if z =? 0 then Ok (coef, dE) else pow_key
        end
    | ENum (NRat rn rd) =>
        match t with
        | ENum ((NInt _ | NRat _ _) as tn) => do r <- rat_pow rec tn rn rd; datn_result coef dE r tail
        | _ => tail
        end
    | _ => tail
    end.

  (* the sum of the stored exponent v and the new one *)
  Definition datn_sum (exp v : expr) : res expr :=
    match exp, v with
    | ENum en, ENum vn => do s <- num_add vn en; Ok (ENum s)
    | _, _ => e_add v exp
    end.

  Lemma step_datn_eq : forall coef d exp t,
    step_datn rec coef d exp t =
    match pow_int_term t exp with
    | Some (tb, te) => do e' <- rE rec (CMul te exp); rS rec (CDatn coef d e' tb)
    | None =>
        match mlookup t d with
        | None => datn_absent coef d exp t
        | Some (k, v) =>
            do newv <- datn_sum exp v;
            let dE := merase t d in
            let tail := datn_tail coef t (mset t newv d) dE k newv in
            datn_found coef t dE newv tail (datn_pow_key coef dE k newv tail)
        end
    end.
  Proof. reflexivity. Qed.
  (* [step_pow]: the last three rules of pow() *)
  Definition pow_last (a b : expr) : res expr :=
    match a with
    | EPow ab ae =>
        if is_Integer b then do e' <- rE rec (CMul ae b); rE rec (CPow ab e')
        else if expr_eqb ae e_minus_one then
          do nb <- rE rec (CMul e_minus_one b); rE rec (CPow ab nb)
        else Ok (EPow a b)
    | _ => Ok (EPow a b)
    end.

  Definition pow_num_result (r : res number) : res expr := do x <- r; Ok (ENum x).

  (* the rules for a Number exponent; [last] is what follows them *)
  Definition pow_by_number (a b : expr) (last : res expr) : res expr :=
    match b with
    | ENum bn =>
        match a with
        | ENum an =>
            match bn with
            | NInt _ => pow_num_result (num_pow an bn)
            | NRat en ed =>
                match an with
                | NRat n d => rE rec (CPowrat n d en ed)
                | NInt z => rE rec (CRpowrat en ed z)
                | NCplx _ _ _ _ => Ok (EPow a b)
                | _ => pow_num_result (num_pow an bn)
                end
            | NCplx _ _ _ _ =>
                if num_is_exact an then (if num_is_one an then Ok e_one else Ok (EPow a b))
                else pow_num_result (num_pow an bn)
            | _ => pow_num_result (num_pow an bn)
            end
        | EMul sc sd =>
            do st <- rS rec (CPowerNum sc sd (NInt 1) [] bn);
            Ok (mul_from_dict (fst st) (snd st))
        | _ =>
            if expr_eqb a e_E then
              (if negb (num_is_exact bn) then ErrExn EXN_LIBM else last)
            else last
        end
    | _ => last
    end.

  (* the rules for exponent 0 and 1 and base 0, 1 and -1; [rest] is what follows them *)
  Definition pow_first (a b : expr) (rest : res expr) : res expr :=
    match b with
    | ENum bn => if num_is_zero bn then pow_num_result (num_add (NInt 1) bn) else
        if expr_eqb b e_one then Ok a
        else if expr_eqb a e_zero then
          (if num_is_positive bn then Ok e_zero
           else if num_is_negative bn then Ok (ENum (NInf 0))
           else Ok (EPow a b))
        else if expr_eqb a e_minus_one then
          match bn with
          | NInt z => Ok (if Z.even z then e_one else e_minus_one)
          | NRat _ _ => if expr_eqb b e_half then Ok (ENum I_unit) else rest
          | _ => rest
          end
        else rest
    | _ =>
        if expr_eqb a e_zero then Ok (EPow a b)
        else if expr_eqb a e_one then Ok e_one
        else rest
    end.

  Lemma step_pow_eq : forall a b,
    step_pow rec a b = pow_first a b (pow_by_number a b (pow_last a b)).
  Proof. reflexivity. Qed.
End Parts.
