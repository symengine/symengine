(* Fuel monotonicity of the arithmetic model: once [arith fuel c] returns a value or an exception
   (anything but ErrFuel), every larger fuel returns the same.  Holds for ALL inputs. *)
From SE Require Export Expr.ArithSteps.
Local Open Scope Z_scope.

(* x is ErrFuel, or y is the same result *)
Definition le_res {A} (x y : res A) : Prop := x = ErrFuel \/ x = y.

Lemma le_refl : forall A (x : res A), le_res x x.
Proof. intros. right. reflexivity. Qed.

Lemma bind_mono : forall A B (x x' : res A) (k k' : A -> res B),
  le_res x x' -> (forall a, le_res (k a) (k' a)) -> le_res (bind x k) (bind x' k').
Proof.
  intros A B x x' k k' [-> | ->] H; [left; reflexivity|].
  destruct x' as [a| | |]; cbn [bind]; try (right; reflexivity). apply H.
Qed.

Lemma fold_res_mono : forall A B (f f' : A -> B -> res A) l a,
  (forall a x, le_res (f a x) (f' a x)) -> le_res (fold_res f l a) (fold_res f' l a).
Proof.
  induction l as [|x l IH]; intros a H; cbn [fold_res]; [apply le_refl|].
  apply bind_mono; [apply H | intros; apply IH; exact H].
Qed.

Lemma if_mono : forall A (b : bool) (x x' y y' : res A),
  le_res x x' -> le_res y y' -> le_res (if b then x else y) (if b then x' else y').
Proof. intros. destruct b; assumption. Qed.

Section Mono.
  Variables rec rec' : call -> res ret.
  Hypothesis H : forall c, le_res (rec c) (rec' c).

  Lemma rE_mono : forall c, le_res (rE rec c) (rE rec' c).
  Proof using H. intros c. unfold rE. apply bind_mono; [apply H | intros; apply le_refl]. Qed.
  Lemma rS_mono : forall c, le_res (rS rec c) (rS rec' c).
  Proof using H. intros c. unfold rS. apply bind_mono; [apply H | intros; apply le_refl]. Qed.

  Lemma datn_loop_mono : forall coef d l, le_res (datn_loop rec coef d l) (datn_loop rec' coef d l).
  Proof using H. intros. unfold datn_loop. apply fold_res_mono. intros. apply rS_mono. Qed.

  Lemma rat_pow_mono : forall t en ed, le_res (rat_pow rec t en ed) (rat_pow rec' t en ed).
  Proof using H. intros. unfold rat_pow. destruct t; try apply le_refl; apply rE_mono. Qed.

  Hint Resolve le_refl if_mono bind_mono fold_res_mono rE_mono rS_mono datn_loop_mono rat_pow_mono : mono.

  Lemma datn_result_mono : forall coef d r o o', le_res o o' ->
    le_res (datn_result rec coef d r o) (datn_result rec' coef d r o').
  Proof using H. intros. unfold datn_result. destruct r; auto with mono. Qed.
  Hint Resolve datn_result_mono : mono.

  Lemma datn_absent_mono : forall coef d exp t,
    le_res (datn_absent rec coef d exp t) (datn_absent rec' coef d exp t).
  Proof using H.
    intros. unfold datn_absent. destruct t as [tn| | | | | | | | | | | | | | | | | ]; try apply le_refl.
    apply if_mono; [|apply le_refl]. destruct exp as [[]| | | | | | | | | | | | | | | | | ]; try apply le_refl.
    destruct tn; auto with mono.
  Qed.

  Lemma datn_tail_mono : forall coef t d1 dE k newv,
    le_res (datn_tail rec coef t d1 dE k newv) (datn_tail rec' coef t d1 dE k newv).
  Proof using H. intros. unfold datn_tail. destruct newv; try apply le_refl. destruct k; auto with mono. Qed.

  Lemma datn_pow_key_mono : forall coef dE k newv tl tl', le_res tl tl' ->
    le_res (datn_pow_key rec coef dE k newv tl) (datn_pow_key rec' coef dE k newv tl').
  Proof using H. intros. unfold datn_pow_key. destruct k; auto with mono. Qed.

  Lemma datn_found_mono : forall coef t dE newv tl tl' pk pk', le_res tl tl' -> le_res pk pk' ->
    le_res (datn_found rec coef t dE newv tl pk) (datn_found rec' coef t dE newv tl' pk').
  Proof using H.
    intros. unfold datn_found. destruct newv as [[]| | | | | | | | | | | | | | | | | ]; try assumption.
    - destruct t; auto with mono.
    - destruct t as [[]| | | | | | | | | | | | | | | | | ]; auto with mono.
  Qed.

  Lemma step_datn_mono : forall coef d exp t, le_res (step_datn rec coef d exp t) (step_datn rec' coef d exp t).
  Proof using H.
    intros. rewrite !step_datn_eq. destruct (pow_int_term t exp) as [[tb te]|]; [auto with mono|].
    destruct (mlookup t d) as [[k v]|]; [|apply datn_absent_mono].
    apply bind_mono; [apply le_refl|]. intros newv. cbv zeta.
    apply datn_found_mono; [|apply datn_pow_key_mono]; apply datn_tail_mono.
  Qed.

  Lemma step_power_num_mono : forall sc sd coef d exp,
    le_res (step_power_num rec sc sd coef d exp) (step_power_num rec' sc sd coef d exp).
  Proof using H.
    intros. unfold step_power_num. apply if_mono; [apply le_refl|]. apply bind_mono.
    - destruct exp; auto 6 with mono.
      apply bind_mono; [apply rE_mono | intros nc]. apply bind_mono; [|intros; apply le_refl].
      apply fold_res_mono. intros st p. apply bind_mono; [apply rE_mono | intros ne].
      destruct ne as [[]| | | | | | | | | | | | | | | | | ]; try apply rS_mono. destruct (fst p); apply rS_mono.
    - intros ncst. cbv zeta. destruct (fst ncst); auto with mono.
  Qed.

  Lemma mul_operand_mono : forall coef d x, le_res (mul_operand rec coef d x) (mul_operand rec' coef d x).
  Proof using H. intros. unfold mul_operand. destruct x; auto with mono. Qed.

  Lemma step_mul_mono : forall a b, le_res (step_mul rec a b) (step_mul rec' a b).
  Proof using H.
    intros. unfold step_mul. apply bind_mono; [|intros; apply le_refl].
    pose proof mul_operand_mono. destruct a; destruct b; auto with mono.
  Qed.

  Lemma step_rpowrat_mono : forall num den other, le_res (step_rpowrat rec num den other) (step_rpowrat rec' num den other).
  Proof using H. intros. unfold step_rpowrat. cbv zeta. auto 7 with mono. Qed.

  Lemma step_powrat_mono : forall bn bd en ed, le_res (step_powrat rec bn bd en ed) (step_powrat rec' bn bd en ed).
  Proof using H. intros. unfold step_powrat. auto with mono. Qed.

  Lemma pow_last_mono : forall a b, le_res (pow_last rec a b) (pow_last rec' a b).
  Proof using H. intros. unfold pow_last. destruct a; auto with mono. Qed.

  Lemma pow_by_number_mono : forall a b l l', le_res l l' -> le_res (pow_by_number rec a b l) (pow_by_number rec' a b l').
  Proof using H.
    intros. unfold pow_by_number. destruct b as [bn| | | | | | | | | | | | | | | | | ]; try assumption.
    destruct a as [an| | | | | | | | | | | | | | | | | ]; auto with mono.
    destruct bn; try apply le_refl. destruct an; auto with mono.
  Qed.

  Lemma pow_first_mono : forall a b r r', le_res r r' -> le_res (pow_first a b r) (pow_first a b r').
  Proof. intros. unfold pow_first. destruct b as [[]| | | | | | | | | | | | | | | | | ]; auto 6 with mono. Qed.

  Lemma step_pow_mono : forall a b, le_res (step_pow rec a b) (step_pow rec' a b).
  Proof using H.
    intros. rewrite !step_pow_eq. apply pow_first_mono, pow_by_number_mono, pow_last_mono.
  Qed.

  Lemma step_mono : forall c, le_res (step rec c) (step rec' c).
  Proof using H.
    intros c. unfold step. destruct c; (apply bind_mono; [|intros; apply le_refl]).
    - apply step_mul_mono.
    - apply step_pow_mono.
    - apply step_datn_mono.
    - apply step_power_num_mono.
    - apply step_rpowrat_mono.
    - apply step_powrat_mono.
  Qed.
End Mono.

