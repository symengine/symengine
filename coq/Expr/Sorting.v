(* The ordered container model ([map_insert], [map_of_umap]): insertion sort by a comparator
   that is a strict order on the keys at hand. *)
From SE Require Export Expr.Dict.
From Coq Require Import Lia Permutation.

Section Sorting.
  Variable eqr : expr -> expr -> bool.
  Variable cmpr : expr -> expr -> Z.
  Notation lt := (keyless eqr cmpr).
  Variable P : expr -> Prop.
  Hypothesis lt_trans : forall x y z, P x -> P y -> P z ->
    lt x y = true -> lt y z = true -> lt x z = true.
  Hypothesis lt_asym : forall x y, P x -> P y -> lt x y = true -> lt y x = false.

  Definition keysP (m : list (expr * number)) : Prop := forall p, In p m -> P (fst p).
  Definition ssorted (m : list (expr * number)) : Prop :=
    ForallOrdPairs (fun p q => lt (fst p) (fst q) = true) m.
  Definition comparable (x y : expr) : Prop := lt x y = true \/ lt y x = true.

  Lemma keysP_tail : forall p m, keysP (p :: m) -> keysP m.
  Proof. intros p m K q Hq. apply K. right. exact Hq. Qed.

  Lemma map_insert_sorted : forall k v m, P k -> keysP m -> ssorted m ->
    ssorted (map_insert eqr cmpr k v m).
  Proof using lt_trans.
    induction m as [|[k' v'] m IH]; cbn [map_insert]; intros Pk Km S.
    - constructor; constructor.
    - inversion S as [|? ? Hhd Htl]; subst.
      assert (Pk' : P k') by (apply (Km (k', v')); left; reflexivity).
      destruct (lt k' k) eqn:L1.
      + constructor.
        * apply Forall_forall. intros q Hq. apply map_insert_in in Hq.
          destruct Hq as [->|Hq]; [exact L1|]. eapply Forall_forall in Hhd; eauto.
        * apply IH; auto. eapply keysP_tail; eassumption.
      + destruct (lt k k') eqn:L2; [|exact S].
        constructor; [|exact S].
        constructor; [exact L2|]. apply Forall_forall. intros q Hq.
        eapply Forall_forall in Hhd; [|exact Hq]. cbn [fst] in *.
        apply (lt_trans k k' (fst q)); auto. apply Km. right. exact Hq.
  Qed.

  Lemma map_insert_perm : forall k v m,
    (forall p, In p m -> comparable (fst p) k) ->
    Permutation (map_insert eqr cmpr k v m) ((k, v) :: m).
  Proof.
    induction m as [|[k' v'] m IH]; cbn [map_insert]; intros C; [apply Permutation_refl|].
    destruct (lt k' k) eqn:L1.
    - eapply perm_trans; [apply perm_skip; apply IH; intros; apply C; right; assumption|].
      apply perm_swap.
    - destruct (lt k k') eqn:L2; [apply Permutation_refl|].
      exfalso. destruct (C (k', v') (or_introl eq_refl)) as [H|H]; cbn [fst] in H; congruence.
  Qed.

  Lemma map_insert_keysP : forall k v m, P k -> keysP m -> keysP (map_insert eqr cmpr k v m).
  Proof.
    intros k v m Pk Km p Hp. apply map_insert_in in Hp. destruct Hp as [->|Hp]; [exact Pk|]. apply Km; exact Hp.
  Qed.

  Lemma fold_insert_sorted : forall d m, keysP d -> keysP m -> ssorted m ->
    ssorted (fold_left (fun m p => map_insert eqr cmpr (fst p) (snd p) m) d m).
  Proof using lt_trans.
    induction d as [|[k v] d IH]; cbn [fold_left fst snd]; intros m Kd Km S; [exact S|].
    apply IH.
    - eapply keysP_tail; eassumption.
    - apply map_insert_keysP; auto. apply (Kd (k, v)). left. reflexivity.
    - apply map_insert_sorted; auto. apply (Kd (k, v)). left. reflexivity.
  Qed.

  Lemma map_of_umap_sorted : forall d, keysP d -> ssorted (map_of_umap eqr cmpr d).
  Proof using lt_trans.
    intros d Kd. unfold map_of_umap. apply fold_insert_sorted; auto.
    - intros p Hp. contradiction.
    - constructor.
  Qed.

  (* no entry is dropped when distinct entries have comparable keys *)
  Definition all_comparable (l : list (expr * number)) : Prop :=
    NoDup l /\ forall p q, In p l -> In q l -> p <> q -> comparable (fst p) (fst q).

  Lemma all_comparable_perm : forall l1 l2, Permutation l1 l2 -> all_comparable l1 -> all_comparable l2.
  Proof.
    intros l1 l2 Pm [ND C]. split; [eapply Permutation_NoDup; eassumption|].
    intros p q Hp Hq. apply C; eapply Permutation_in; try eassumption; apply Permutation_sym; assumption.
  Qed.

  Lemma fold_insert_perm : forall d m, all_comparable (m ++ d) ->
    Permutation (fold_left (fun m p => map_insert eqr cmpr (fst p) (snd p) m) d m) (m ++ d).
  Proof.
    induction d as [|[k v] d IH]; cbn [fold_left fst snd]; intros m AC.
    - rewrite app_nil_r. apply Permutation_refl.
    - assert (PI : Permutation (map_insert eqr cmpr k v m) ((k, v) :: m)).
      { apply map_insert_perm. intros p Hp. destruct AC as [ND C]. apply (C p (k, v)).
        - apply in_or_app. left. exact Hp.
        - apply in_or_app. right. left. reflexivity.
        - intros ->. apply NoDup_remove_2 in ND. apply ND. apply in_or_app. left. exact Hp. }
      assert (PM : Permutation (map_insert eqr cmpr k v m ++ d) (m ++ (k, v) :: d)).
      { eapply perm_trans; [apply Permutation_app_tail; exact PI|].
        cbn [app]. apply Permutation_middle. }
      eapply perm_trans; [apply IH|exact PM].
      eapply all_comparable_perm; [apply Permutation_sym; exact PM | exact AC].
  Qed.

  Lemma map_of_umap_perm : forall d, all_comparable d -> Permutation (map_of_umap eqr cmpr d) d.
  Proof. intros d AC. unfold map_of_umap. apply (fold_insert_perm d []). exact AC. Qed.

  (* a strictly sorted list is determined by its set of entries *)
  Lemma ssorted_in : forall p m q, ssorted (p :: m) -> In q m -> lt (fst p) (fst q) = true.
  Proof.
    intros p m q S Hq. inversion S as [|? ? Hhd _]; subst. eapply Forall_forall in Hhd; eauto.
  Qed.
  Lemma ssorted_tail : forall p m, ssorted (p :: m) -> ssorted m.
  Proof. intros p m S. inversion S; assumption. Qed.

  Lemma sorted_perm_unique : forall l1 l2, keysP l1 -> ssorted l1 -> ssorted l2 ->
    Permutation l1 l2 -> l1 = l2.
  Proof using lt_asym.
    induction l1 as [|h1 t1 IH]; intros l2 K S1 S2 Pm.
    - apply Permutation_nil in Pm. congruence.
    - destruct l2 as [|h2 t2]; [apply Permutation_sym, Permutation_nil in Pm; discriminate|].
      assert (E : h1 = h2).
      { assert (H1 : In h1 (h2 :: t2)) by (eapply Permutation_in; [exact Pm | left; reflexivity]).
        assert (H2 : In h2 (h1 :: t1))
          by (eapply Permutation_in; [apply Permutation_sym; exact Pm | left; reflexivity]).
        destruct H1 as [H1|H1]; [congruence|]. destruct H2 as [H2|H2]; [congruence|].
        pose proof (ssorted_in _ _ _ S2 H1) as L1. pose proof (ssorted_in _ _ _ S1 H2) as L2.
        rewrite (lt_asym (fst h1) (fst h2)) in L1; auto; [discriminate | apply K; left; reflexivity|].
        apply K. right. exact H2. }
      subst h2. f_equal. apply IH.
      + eapply keysP_tail; eassumption.
      + eapply ssorted_tail; eassumption.
      + eapply ssorted_tail; eassumption.
      + eapply Permutation_cons_inv; eassumption.
  Qed.

  (* two strictly sorted lists whose entries correspond under a relation that implies
     equivalence of the keys correspond position by position *)
  Section Match.
    Variable R : expr * number -> expr * number -> Prop.
    Variable E : expr -> expr -> Prop.     (* equivalence of keys *)
    Hypothesis R_E : forall p q, R p q -> E (fst p) (fst q).
    Hypothesis E_sym : forall x y, P x -> P y -> E x y -> E y x.
    Hypothesis E_trans : forall x y z, P x -> P y -> P z -> E x y -> E y z -> E x z.
    Hypothesis E_lt : forall x y, P x -> P y -> E x y -> lt x y = false.
    Hypothesis lt_E : forall x y z, P x -> P y -> P z -> lt x y = true -> E y z -> lt x z = true.

    Lemma sorted_match : forall m1 m2, keysP m1 -> keysP m2 -> ssorted m1 -> ssorted m2 ->
      (forall p, In p m1 -> exists q, In q m2 /\ R p q) ->
      (forall q, In q m2 -> exists p, In p m1 /\ R p q) ->
      Forall2 R m1 m2.
    Proof using E_lt E_sym E_trans R_E lt_E lt_asym.
      induction m1 as [|h1 t1 IH]; intros m2 K1 K2 S1 S2 H12 H21.
      - destruct m2 as [|h2 t2]; [constructor|].
        destruct (H21 h2 (or_introl eq_refl)) as [p [[] _]].
      - destruct m2 as [|h2 t2]; [destruct (H12 h1 (or_introl eq_refl)) as [q [[] _]]|].
        assert (P1 : P (fst h1)) by (apply K1; left; reflexivity).
        assert (P2 : P (fst h2)) by (apply K2; left; reflexivity).
        assert (RH : R h1 h2).
        { destruct (H12 h1 (or_introl eq_refl)) as [q [[<-|Hq] Rq]]; [exact Rq|].
          destruct (H21 h2 (or_introl eq_refl)) as [p [[<-|Hp] Rp]]; [exact Rp|].
          exfalso.
          assert (Pq : P (fst q)) by (apply K2; right; exact Hq).
          assert (Pp : P (fst p)) by (apply K1; right; exact Hp).
          pose proof (ssorted_in _ _ _ S2 Hq) as L2. (* h2 < q ~ h1 *)
          pose proof (ssorted_in _ _ _ S1 Hp) as L1. (* h1 < p ~ h2 *)
          assert (A : lt (fst h2) (fst h1) = true).
          { apply (lt_E (fst h2) (fst q) (fst h1)); auto; try (apply E_sym; auto). }
          assert (B : lt (fst h1) (fst h2) = true).
          { apply (lt_E (fst h1) (fst p) (fst h2)); auto. }
          rewrite (lt_asym (fst h1) (fst h2)) in A; auto. discriminate. }
        constructor; [exact RH|].
        apply IH.
        + eapply keysP_tail; eassumption.
        + eapply keysP_tail; eassumption.
        + eapply ssorted_tail; eassumption.
        + eapply ssorted_tail; eassumption.
        + intros p Hp. destruct (H12 p (or_intror Hp)) as [q [[<-|Hq] Rq]]; [|exists q; auto].
          exfalso. assert (Pp : P (fst p)) by (apply K1; right; exact Hp).
          pose proof (ssorted_in _ _ _ S1 Hp) as L1.
          rewrite (E_lt (fst h1) (fst p)) in L1; auto; [discriminate|].
          apply (E_trans (fst h1) (fst h2) (fst p)); auto; try (apply E_sym; auto).
        + intros q Hq. destruct (H21 q (or_intror Hq)) as [p [[<-|Hp] Rp]]; [|exists p; auto].
          exfalso. assert (Pq : P (fst q)) by (apply K2; right; exact Hq).
          pose proof (ssorted_in _ _ _ S2 Hq) as L2.
          rewrite (E_lt (fst h2) (fst q)) in L2; auto; [discriminate|].
          apply (E_trans (fst h2) (fst h1) (fst q)); auto; try (apply E_sym; auto).
    Qed.
  End Match.
End Sorting.
