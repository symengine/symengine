(* Algebra of Q(i) as pairs of Q up to Qeq: setoid structure, ring/field identities used
   by the correctness proofs of the exact number classes. *)
From SE Require Import Num.NumSpec.
From Coq Require Import QArith Lia ZArith Setoid Morphisms Field.
Local Open Scope Q_scope.

#[global] Instance qi_eq_equiv : Equivalence qi_eq.
Proof.
  split.
  - intros [a b]; split; reflexivity.
  - intros x y [H1 H2]; split; symmetry; assumption.
  - intros x y z [H1 H2] [H3 H4]; split; etransitivity; eassumption.
Qed.

Ltac qi_unfold :=
  unfold qi_eq, qi_mul, qi_add, qi_sub, qi_opp, qi_div, qi_inv, qi_norm2, qi_one, qi_zero in *;
  cbn [fst snd] in *.

#[global] Instance qi_add_proper : Proper (qi_eq ==> qi_eq ==> qi_eq) qi_add.
Proof. intros [a b] [a' b'] [H1 H2] [c d] [c' d'] [H3 H4]. qi_unfold. split; rewrite ?H1, ?H2, ?H3, ?H4; reflexivity. Qed.
#[global] Instance qi_sub_proper : Proper (qi_eq ==> qi_eq ==> qi_eq) qi_sub.
Proof. intros [a b] [a' b'] [H1 H2] [c d] [c' d'] [H3 H4]. qi_unfold. split; rewrite ?H1, ?H2, ?H3, ?H4; reflexivity. Qed.
#[global] Instance qi_mul_proper : Proper (qi_eq ==> qi_eq ==> qi_eq) qi_mul.
Proof. intros [a b] [a' b'] [H1 H2] [c d] [c' d'] [H3 H4]. qi_unfold. split; rewrite ?H1, ?H2, ?H3, ?H4; reflexivity. Qed.
#[global] Instance qi_div_proper : Proper (qi_eq ==> qi_eq ==> qi_eq) qi_div.
Proof. intros [a b] [a' b'] [H1 H2] [c d] [c' d'] [H3 H4]. qi_unfold. split; rewrite ?H1, ?H2, ?H3, ?H4; reflexivity. Qed.
#[global] Instance qi_inv_proper : Proper (qi_eq ==> qi_eq) qi_inv.
Proof. intros x y H. unfold qi_inv. now rewrite H. Qed.
#[global] Instance qi_pow_nat_proper : Proper (qi_eq ==> eq ==> qi_eq) qi_pow_nat.
Proof.
  intros x y H n m <-. induction n as [|n IH]; cbn [qi_pow_nat].
  - reflexivity.
  - apply qi_mul_proper; assumption.
Qed.

Lemma qi_add_comm : forall x y, qi_eq (qi_add x y) (qi_add y x).
Proof. intros [a b] [c d]. qi_unfold. split; ring. Qed.
Lemma qi_add_assoc : forall x y z, qi_eq (qi_add x (qi_add y z)) (qi_add (qi_add x y) z).
Proof. intros [a b] [c d] [e f]. qi_unfold. split; ring. Qed.
Lemma qi_add_0_l : forall x, qi_eq (qi_add qi_zero x) x.
Proof. intros [a b]. qi_unfold. split; ring. Qed.
Lemma qi_add_0_r : forall x, qi_eq (qi_add x qi_zero) x.
Proof. intros [a b]. qi_unfold. split; ring. Qed.
Lemma qi_mul_comm : forall x y, qi_eq (qi_mul x y) (qi_mul y x).
Proof. intros [a b] [c d]. qi_unfold. split; ring. Qed.
Lemma qi_mul_assoc : forall x y z, qi_eq (qi_mul x (qi_mul y z)) (qi_mul (qi_mul x y) z).
Proof. intros [a b] [c d] [e f]. qi_unfold. split; ring. Qed.
Lemma qi_mul_1_l : forall x, qi_eq (qi_mul qi_one x) x.
Proof. intros [a b]. qi_unfold. split; ring. Qed.
Lemma qi_mul_1_r : forall x, qi_eq (qi_mul x qi_one) x.
Proof. intros [a b]. qi_unfold. split; ring. Qed.
Lemma qi_mul_0_l : forall x, qi_eq (qi_mul qi_zero x) qi_zero.
Proof. intros [a b]. qi_unfold. split; ring. Qed.
Lemma qi_mul_add_distr_l : forall x y z, qi_eq (qi_mul x (qi_add y z)) (qi_add (qi_mul x y) (qi_mul x z)).
Proof. intros [a b] [c d] [e f]. qi_unfold. split; ring. Qed.

Lemma qi_norm2_mul : forall x y, qi_norm2 (qi_mul x y) == qi_norm2 x * qi_norm2 y.
Proof. intros [a b] [c d]. unfold qi_norm2, qi_mul. cbn [fst snd]. ring. Qed.

Lemma qi_zero_norm2 : forall x, qi_is_zero x <-> qi_norm2 x == 0.
Proof.
  intros [a b]. unfold qi_is_zero, qi_norm2. qi_unfold. split.
  - intros [H1 H2]. rewrite H1, H2. ring.
  - (* over Z: n^2 e^2 + m^2 d^2 = 0 with d, e > 0 *)
    destruct a as [n d], b as [m e]. unfold Qeq, Qplus, Qmult. cbn [Qnum Qden]. intros H. split; nia.
Qed.

Lemma qi_mul_nonzero : forall x y, ~ qi_is_zero x -> ~ qi_is_zero y -> ~ qi_is_zero (qi_mul x y).
Proof.
  intros x y Hx Hy H. rewrite qi_zero_norm2 in *. rewrite qi_norm2_mul in H.
  destruct (Qmult_integral _ _ H); tauto.
Qed.

Lemma qi_pow_nat_nonzero : forall x n, ~ qi_is_zero x -> ~ qi_is_zero (qi_pow_nat x n).
Proof.
  intros x n Hx. induction n as [|n IH]; cbn [qi_pow_nat].
  - unfold qi_is_zero. qi_unfold. intros [H _]. discriminate H.
  - now apply qi_mul_nonzero.
Qed.

Lemma qi_pow_nat_add : forall x n m, qi_eq (qi_pow_nat x (n + m)) (qi_mul (qi_pow_nat x n) (qi_pow_nat x m)).
Proof.
  intros x n m. induction n as [|n IH]; cbn [qi_pow_nat Nat.add].
  - now rewrite qi_mul_1_l.
  - rewrite IH. apply qi_mul_assoc.
Qed.

Lemma qi_pow_nat_mul_base : forall x y n,
  qi_eq (qi_pow_nat (qi_mul x y) n) (qi_mul (qi_pow_nat x n) (qi_pow_nat y n)).
Proof.
  intros x y n. induction n as [|n IH]; cbn [qi_pow_nat].
  - now rewrite qi_mul_1_l.
  - rewrite IH. destruct x as [a b], y as [c d], (qi_pow_nat (a,b) n) as [e f], (qi_pow_nat (c,d) n) as [g h].
    qi_unfold. split; ring.
Qed.

Lemma qi_pow_nat_sqr : forall x n, qi_eq (qi_pow_nat (qi_mul x x) n) (qi_pow_nat x (2 * n)).
Proof.
  intros x n. rewrite qi_pow_nat_mul_base. replace (2 * n)%nat with (n + n)%nat by lia.
  now rewrite qi_pow_nat_add.
Qed.

(* division *)
Lemma qi_div_mul : forall x y, ~ qi_is_zero y -> qi_eq (qi_mul (qi_div x y) y) x.
Proof.
  intros [a b] [c d] Hy. rewrite qi_zero_norm2 in Hy. unfold qi_norm2 in Hy. qi_unfold.
  split; field; exact Hy.
Qed.

Lemma qi_div_unique : forall x y z, ~ qi_is_zero y -> qi_eq (qi_mul z y) x -> qi_eq z (qi_div x y).
Proof.
  intros [a b] [c d] [e f] Hy [H1 H2]. rewrite qi_zero_norm2 in Hy. unfold qi_norm2 in Hy. qi_unfold.
  split; rewrite <- H1, <- H2; field; exact Hy.
Qed.

Lemma qi_inv_mul : forall x y, ~ qi_is_zero x -> ~ qi_is_zero y ->
  qi_eq (qi_inv (qi_mul x y)) (qi_mul (qi_inv x) (qi_inv y)).
Proof.
  intros x y Hx Hy. symmetry. unfold qi_inv at 3. apply qi_div_unique.
  - now apply qi_mul_nonzero.
  - transitivity (qi_mul (qi_mul (qi_inv x) x) (qi_mul (qi_inv y) y)).
    + destruct (qi_inv x) as [a b], (qi_inv y) as [c d], x as [e f], y as [g h]. qi_unfold. split; ring.
    + unfold qi_inv. rewrite !qi_div_mul by assumption. apply qi_mul_1_l.
Qed.

Lemma qi_inv_one : qi_eq (qi_inv qi_one) qi_one.
Proof. qi_unfold. split; reflexivity. Qed.

Lemma qi_div_as_mul : forall x y, ~ qi_is_zero y -> qi_eq (qi_div x y) (qi_mul x (qi_inv y)).
Proof.
  intros x y Hy. symmetry. apply qi_div_unique; [assumption|].
  rewrite <- qi_mul_assoc. unfold qi_inv. rewrite qi_div_mul by assumption. apply qi_mul_1_r.
Qed.

(* real elements *)
Lemma qi_pow_nat_rat : forall (n : Z) (d : positive) (k : nat),
  qi_eq (qi_pow_nat (Qmake n d, 0) k) (Qmake (n ^ Z.of_nat k) (Z.to_pos (Zpos d ^ Z.of_nat k)), 0).
Proof.
  intros n d k. induction k as [|k IH].
  - cbn. split; reflexivity.
  - cbn [qi_pow_nat]. rewrite IH. rewrite Nat2Z.inj_succ. unfold Z.succ.
    rewrite !Z.pow_add_r, !Z.pow_1_r by lia.
    assert (Hp : (0 < Zpos d ^ Z.of_nat k)%Z) by (apply Z.pow_pos_nonneg; lia).
    qi_unfold. split; [|ring].
    unfold Qeq, Qmult, Qminus, Qplus, Qopp. cbn [Qnum Qden].
    rewrite !Pos2Z.inj_mul. rewrite !Z2Pos.id by nia. ring.
Qed.

Lemma qi_pow_nat_int : forall (b : Z) (k : nat),
  qi_eq (qi_pow_nat (inject_Z b, 0) k) (inject_Z (b ^ Z.of_nat k), 0).
Proof.
  intros b k. unfold inject_Z at 1. rewrite qi_pow_nat_rat.
  split; cbn [fst snd]; [|reflexivity].
  rewrite Z.pow_1_l by lia. reflexivity.
Qed.

(* the four units *)
Definition qi_i : qi := (0, 1).
Definition unit_of (r : Z) : qi :=
  match r with 0%Z => (1, 0) | 1%Z => (0, 1) | 2%Z => (-1 # 1, 0) | _ => (0, -1 # 1) end.

Lemma unit_of_step : forall k : Z, (0 <= k)%Z ->
  qi_eq (unit_of ((k + 1) mod 4)) (qi_mul qi_i (unit_of (k mod 4))).
Proof.
  intros k Hk.
  assert (H : (k mod 4 = 0 \/ k mod 4 = 1 \/ k mod 4 = 2 \/ k mod 4 = 3)%Z) by (pose proof (Z.mod_pos_bound k 4); lia).
  rewrite Z.add_mod by lia.
  destruct H as [H|[H|[H|H]]]; rewrite H; cbn; qi_unfold; split; reflexivity.
Qed.

Lemma qi_i_pow : forall n, qi_eq (qi_pow_nat qi_i n) (unit_of (Z.of_nat n mod 4)).
Proof.
  induction n as [|n IH].
  - cbn. split; reflexivity.
  - cbn [qi_pow_nat]. rewrite IH. rewrite Nat2Z.inj_succ. unfold Z.succ.
    symmetry. apply unit_of_step. lia.
Qed.

Lemma unit_of_inv : forall r : Z, (0 <= r < 4)%Z -> qi_eq (qi_inv (unit_of r)) (unit_of ((- r) mod 4)).
Proof.
  intros r Hr. assert (H : (r = 0 \/ r = 1 \/ r = 2 \/ r = 3)%Z) by lia.
  destruct H as [H|[H|[H|H]]]; subst r; cbn; qi_unfold; split; reflexivity.
Qed.

Lemma unit_of_nonzero : forall r, ~ qi_is_zero (unit_of r).
Proof.
  intros r. unfold qi_is_zero.
  destruct r as [|[[|[]|]|[|[]|]|]|]; cbn; qi_unfold; intros [H1 H2]; try discriminate H1; try discriminate H2.
Qed.
