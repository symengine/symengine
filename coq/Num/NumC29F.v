(* C29 on doubles, for ALL bit patterns: the relations compare the operands as IEEE doubles
   (after the truncating conversion of an exact operand), and the IEEE comparison is the
   comparison of the exact values. *)
From SE Require Import Num.NumModel Num.NumQ Num.NumFloat Num.NumFloatOrd Num.NumC29.
From Coq Require Import ZArith QArith Reals Qreals Lia Lra.
From Flocq Require Import IEEE754.BinarySingleNaN Core.
Local Open Scope Z_scope.

(* the double a real operand is compared as *)
Definition conv (a : number) : option f64 :=
  match a with
  | NInt z => Some (d_of_Z z)
  | NRat n d => Some (d_of_Q n d)
  | NDbl x => Some (of_bits x)
  | _ => None
  end.

Lemma neg_mkD : forall r : f64, num_is_negative (mkD r) = flt r fzero.
Proof. intros r. unfold mkD. cbn [num_is_negative]. now rewrite of_to_bits. Qed.
Lemma zero_mkD : forall r : f64, num_is_zero (mkD r) = feq r fzero.
Proof. intros r. unfold mkD. cbn [num_is_zero]. now rewrite of_to_bits. Qed.

Definition has_dbl (a b : number) : bool := is_dbl a || is_dbl b.

(* Lt / Le on {Integer, Rational, RealDouble} with at least one RealDouble = IEEE < / <= *)
Theorem rel_lt_ieee : forall a b x y, has_dbl a b = true -> conv a = Some x -> conv b = Some y ->
  rel_lt a b = Ok (Some (flt x y)).
Proof.
  intros a b x y Hd Hx Hy.
  destruct a as [za|na da| |xa| | | ]; try discriminate Hx; destruct b as [zb|nb db| |xb| | | ]; try discriminate Hy;
    try discriminate Hd; injection Hx as <-; injection Hy as <-;
    unfold rel_lt; cbn [is_a_Complex is_a_NaN num_eqb orb]; unfold num_sub; cbn [sub_step num_rsub bind];
    try (rewrite neg_mkD, fsub_lt; reflexivity).
  destruct (feq (of_bits xa) (of_bits xb)) eqn:E.
  - now rewrite feq_not_flt.
  - cbn [bind]. now rewrite neg_mkD, fsub_lt.
Qed.

Theorem rel_le_ieee : forall a b x y, has_dbl a b = true -> conv a = Some x -> conv b = Some y ->
  BinarySingleNaN.is_nan x = false -> BinarySingleNaN.is_nan y = false ->
  (* not two infinities, unless both operands are doubles (then eq() decides) *)
  (is_dbl a && is_dbl b = true \/ BinarySingleNaN.is_finite x = true \/ BinarySingleNaN.is_finite y = true) ->
  rel_le a b = Ok (Some (flt x y || feq x y)).
Proof.
  intros a b x y Hd Hx Hy Nx Ny Hfin.
  destruct a as [za|na da| |xa| | | ]; try discriminate Hx; destruct b as [zb|nb db| |xb| | | ]; try discriminate Hy;
    try discriminate Hd; injection Hx as <-; injection Hy as <-;
    unfold rel_le; cbn [is_a_Complex is_a_NaN num_eqb orb]; unfold num_sub; cbn [sub_step num_rsub bind];
    cbn [is_dbl andb] in Hfin;
    try (rewrite neg_mkD, zero_mkD; rewrite fsub_le;
         [reflexivity|assumption|assumption|destruct Hfin as [Hf|Hf]; [discriminate Hf|exact Hf]]).
  destruct (feq (of_bits xa) (of_bits xb)) eqn:E.
  - now rewrite Bool.orb_true_r.
  - cbn [bind]. rewrite neg_mkD, zero_mkD, fsub_lt, (fsub_nonzero _ _ E). reflexivity.
Qed.

(* IEEE order = order of the exact values *)
Definition fval (x : f64) : option ext :=
  match x with
  | BinarySingleNaN.B754_nan => None
  | BinarySingleNaN.B754_infinity s => Some (if s then MInf else PInf)
  | _ => option_map Fin (f64_to_Q x)
  end.

Lemma val_dbl : forall b, val (NDbl b) = fval (of_bits b).
Proof. intros b. unfold val, fval. destruct (of_bits b); reflexivity. Qed.

Lemma B2R_Q2R : forall (a : f64) q, f64_to_Q a = Some q -> B2R64 a = Q2R q.
Proof.
  intros [s|s| |s m e H] q Hq; cbn [f64_to_Q] in Hq; try discriminate Hq; injection Hq as <-.
  - cbn. unfold Q2R. cbn. now rewrite Rmult_0_l.
  - unfold BinarySingleNaN.B2R, F2R. cbn [Defs.Fnum Defs.Fexp].
    assert (Hm : cond_Zopp s (Z.pos m) = (if s then Z.neg m else Z.pos m)) by (destruct s; reflexivity).
    rewrite Hm. set (mz := if s then Z.neg m else Z.pos m).
    destruct e as [|p|p].
    + cbn [bpow]. unfold Q2R, inject_Z. cbn [Qnum Qden]. now rewrite Rinv_1.
    + cbn [bpow]. unfold Q2R, inject_Z. cbn [Qnum Qden]. rewrite mult_IZR.
      change (Z.pow_pos 2 p) with (2 ^ Z.pos p)%Z. now rewrite Rinv_1, Rmult_1_r.
    + cbn [bpow]. unfold Q2R. cbn [Qnum Qden].
      change (Z.pow_pos 2 p) with (2 ^ Z.pos p)%Z.
      rewrite Z2Pos.id by (apply Z.pow_pos_nonneg; lia). reflexivity.
Qed.

Lemma finite_has_Q : forall a : f64, BinarySingleNaN.is_finite a = true -> exists q, f64_to_Q a = Some q.
Proof. intros [s|s| |s m e H] Hf; try discriminate Hf; cbn [f64_to_Q]; eexists; reflexivity. Qed.

Lemma fval_finite : forall (a : f64) q, f64_to_Q a = Some q -> fval a = Some (Fin q).
Proof. intros [s|s| |s m e H] q Hq; try discriminate Hq; cbn [fval]; now rewrite Hq. Qed.

Lemma flt_Q : forall (a b : f64) p q, f64_to_Q a = Some p -> f64_to_Q b = Some q ->
  flt a b = (if Qlt_le_dec p q then true else false).
Proof.
  intros a b p q Hp Hq.
  assert (Fa : BinarySingleNaN.is_finite a = true) by (destruct a; try discriminate Hp; reflexivity).
  assert (Fb : BinarySingleNaN.is_finite b = true) by (destruct b; try discriminate Hq; reflexivity).
  unfold flt. rewrite (fcmp_finite a b Fa Fb), (B2R_Q2R a p Hp), (B2R_Q2R b q Hq).
  destruct (Qlt_le_dec p q) as [H|H].
  - apply Qlt_Rlt in H. now rewrite Rcompare_Lt.
  - apply Qle_Rle in H. destruct (Rcompare_spec (Q2R p) (Q2R q)); try reflexivity. lra.
Qed.

Lemma feq_Q : forall (a b : f64) p q, f64_to_Q a = Some p -> f64_to_Q b = Some q ->
  feq a b = Qeq_bool p q.
Proof.
  intros a b p q Hp Hq.
  assert (Fa : BinarySingleNaN.is_finite a = true) by (destruct a; try discriminate Hp; reflexivity).
  assert (Fb : BinarySingleNaN.is_finite b = true) by (destruct b; try discriminate Hq; reflexivity).
  unfold feq. rewrite (fcmp_finite a b Fa Fb), (B2R_Q2R a p Hp), (B2R_Q2R b q Hq).
  destruct (Qeq_bool p q) eqn:E.
  - apply Qeq_bool_iff in E. apply Qeq_eqR in E. now rewrite Rcompare_Eq.
  - destruct (Rcompare_spec (Q2R p) (Q2R q)) as [H|H|H]; try reflexivity.
    apply eqR_Qeq in H. apply Qeq_bool_iff in H. congruence.
Qed.

(* the IEEE comparison is the order of the values: infinities by the definition of Bcompare,
   finite doubles by flt_Q / feq_Q *)
Theorem fcmp_val : forall (a b : f64) x y, fval a = Some x -> fval b = Some y ->
  flt a b = ext_ltb x y /\ feq a b = ext_eqb x y.
Proof.
  intros a b x y Hx Hy.
  destruct (BinarySingleNaN.is_finite a) eqn:Fa, (BinarySingleNaN.is_finite b) eqn:Fb.
  - destruct (finite_has_Q a Fa) as [p Hp], (finite_has_Q b Fb) as [q Hq].
    rewrite (fval_finite a p Hp) in Hx. rewrite (fval_finite b q Hq) in Hy.
    injection Hx as <-. injection Hy as <-. split; [now apply flt_Q|now apply feq_Q].
  - destruct a as [sa|sa| |sa ma ea Ha], b as [sb|sb| |sb mb eb Hb]; try discriminate;
      injection Hx as <-; injection Hy as <-; destruct sb; split; reflexivity.
  - destruct a as [sa|sa| |sa ma ea Ha], b as [sb|sb| |sb mb eb Hb]; try discriminate;
      injection Hx as <-; injection Hy as <-; destruct sa; split; reflexivity.
  - destruct a as [sa|sa| |sa ma ea Ha], b as [sb|sb| |sb mb eb Hb]; try discriminate;
      injection Hx as <-; injection Hy as <-; destruct sa, sb; split; reflexivity.
Qed.

(* an exactly converted n/d has the value of its double (an Integer is the case d = 1) *)
Lemma d_of_Q_exact : forall n d,
  match f64_to_Q (d_of_Q n d) with Some q => negb (Qeq_bool q (Qmake n d)) | None => true end = false ->
  exists x', fval (d_of_Q n d) = Some x' /\ ext_equiv x' (Fin (Qmake n d)) /\
             BinarySingleNaN.is_nan (d_of_Q n d) = false /\ BinarySingleNaN.is_finite (d_of_Q n d) = true.
Proof.
  intros n d Hi. destruct (f64_to_Q (d_of_Q n d)) as [q|] eqn:Eq; [|discriminate Hi].
  apply Bool.negb_false_iff, Qeq_bool_iff in Hi.
  exists (Fin q). destruct (d_of_Q n d); try discriminate Eq; cbn [fval]; rewrite ?Eq; repeat split; auto.
Qed.

(* an operand whose conversion is exact has the value of its double *)
Lemma conv_val : forall a c x, conv a = Some c -> val a = Some x -> conv_inexact a = false ->
  exists x', fval c = Some x' /\ ext_equiv x' x /\ BinarySingleNaN.is_nan c = false /\
             (is_dbl a = false -> BinarySingleNaN.is_finite c = true).
Proof.
  intros a c x Hc Hx Hi.
  destruct a as [z|n d| |b| | | ]; try discriminate Hc; injection Hc as <-.
  - injection Hx as <-. destruct (d_of_Q_exact z 1 Hi) as (x' & ? & ? & ? & ?). exists x'. auto.
  - injection Hx as <-. destruct (d_of_Q_exact n d Hi) as (x' & ? & ? & ? & ?). exists x'. auto.
  - rewrite val_dbl in Hx. exists x. repeat split.
    + exact Hx.
    + apply ext_equiv_refl.
    + destruct (of_bits b); try reflexivity. discriminate Hx.
    + intros H. discriminate H.
Qed.

(* outside the guard both conversions are exact *)
Lemma guard_conv_exact : forall a b ca cb,
  has_dbl a b = true -> conv a = Some ca -> conv b = Some cb -> guard_inexact_conv a b = false ->
  conv_inexact a = false /\ conv_inexact b = false.
Proof.
  intros a b ca cb Hd Ha Hb Hg. unfold guard_inexact_conv in Hg. apply Bool.orb_false_iff in Hg as [H1 H2].
  unfold has_dbl in Hd.
  destruct a as [za|na da| |xa| | | ]; try discriminate Ha; destruct b as [zb|nb db| |xb| | | ]; try discriminate Hb;
    try discriminate Hd; cbn [is_dbl andb] in *; rewrite ?Bool.andb_true_r in *; split; auto.
Qed.

Theorem Lt_Le_correct_dbl_guarded : forall a b ca cb x y,
  has_dbl a b = true -> conv a = Some ca -> conv b = Some cb ->
  val a = Some x -> val b = Some y -> guard_inexact_conv a b = false ->
  rel_lt a b = Ok (Some (ext_ltb x y)) /\ rel_le a b = Ok (Some (ext_leb x y)).
Proof.
  intros a b ca cb x y Hd Ha Hb Hx Hy Hg.
  destruct (guard_conv_exact a b ca cb Hd Ha Hb Hg) as [Hia Hib].
  destruct (conv_val a ca x Ha Hx Hia) as (x' & Hx' & Ex & Na & Fa).
  destruct (conv_val b cb y Hb Hy Hib) as (y' & Hy' & Ey & Nb & Fb).
  destruct (fcmp_val ca cb x' y' Hx' Hy') as [Hlt Heq].
  rewrite (rel_lt_ieee a b ca cb Hd Ha Hb), (rel_le_ieee a b ca cb Hd Ha Hb Na Nb).
  - unfold ext_leb. now rewrite Hlt, Heq, (ext_ltb_proper x' x y' y Ex Ey), (ext_eqb_proper x' x y' y Ex Ey).
  - destruct (is_dbl a) eqn:Da, (is_dbl b) eqn:Db.
    + left. reflexivity.
    + right. right. now apply Fb.
    + right. left. now apply Fa.
    + unfold has_dbl in Hd. rewrite Da, Db in Hd. discriminate Hd.
Qed.

(* symbolic infinity against a finite double *)
Lemma mul_neg1_dbl : forall y, exists b, num_mul (NDbl y) (NInt (-1)) = Ok (NDbl b).
Proof. intros y. unfold num_mul. cbn [mul_step Z.eqb]. eexists. reflexivity. Qed.

Lemma rel_lt_inf_dbl : forall d y, (d =? 0) = false ->
  rel_lt (NInf d) (NDbl y) = Ok (Some (d <? 0)) /\ rel_le (NInf d) (NDbl y) = Ok (Some ((d <? 0) || false)).
Proof.
  intros d y Hd. unfold rel_lt, rel_le. cbn [is_a_Complex is_a_NaN num_eqb orb]. rewrite Hd.
  unfold num_sub. cbn [sub_step]. unfold default_sub.
  destruct (mul_neg1_dbl y) as [b ->]. cbn [bind]. split; reflexivity.
Qed.

Lemma rel_lt_dbl_inf : forall d x, (d =? 0) = false ->
  rel_lt (NDbl x) (NInf d) = Ok (Some (d * -1 <? 0)) /\ rel_le (NDbl x) (NInf d) = Ok (Some ((d * -1 <? 0) || false)).
Proof.
  intros d x Hd. unfold rel_lt, rel_le. cbn [is_a_Complex is_a_NaN num_eqb orb]. rewrite Hd.
  unfold num_sub. cbn [sub_step num_rsub]. unfold default_rsub, num_mul. cbn [mul_step inf_mul num_is_positive num_is_negative bind].
  split; reflexivity.
Qed.

Lemma finite_dbl_val : forall b, is_dbl_inf (NDbl b) = false -> forall x, val (NDbl b) = Some x -> exists q, x = Fin q.
Proof.
  intros b Hi x Hx. rewrite val_dbl in Hx. unfold is_dbl_inf in Hi.
  destruct (of_bits b) as [s|s| |s m e H]; cbn [fval] in Hx; try discriminate Hx; try discriminate Hi.
  - injection Hx as <-. eexists; reflexivity.
  - cbn [f64_to_Q option_map] in Hx. injection Hx as <-. eexists; reflexivity.
Qed.

(* +-oo against a finite double, in either order *)
Lemma rel_inf_dbl : forall d b x y, d = 1 \/ d = -1 ->
  val (NInf d) = Some x -> val (NDbl b) = Some y -> is_dbl_inf (NDbl b) = false ->
  (rel_lt (NInf d) (NDbl b) = Ok (Some (ext_ltb x y)) /\ rel_le (NInf d) (NDbl b) = Ok (Some (ext_leb x y))) /\
  (rel_lt (NDbl b) (NInf d) = Ok (Some (ext_ltb y x)) /\ rel_le (NDbl b) (NInf d) = Ok (Some (ext_leb y x))).
Proof.
  intros d b x y Hd Hx Hy Hf. destruct (finite_dbl_val b Hf y Hy) as [q ->].
  destruct Hd as [-> | ->]; injection Hx as <-;
    [destruct (rel_lt_inf_dbl 1 b eq_refl) as [-> ->], (rel_lt_dbl_inf 1 b eq_refl) as [-> ->]
    |destruct (rel_lt_inf_dbl (-1) b eq_refl) as [-> ->], (rel_lt_dbl_inf (-1) b eq_refl) as [-> ->]];
    repeat split; reflexivity.
Qed.

Definition lt_guard (a b : number) : bool := guard_inexact_conv a b || guard_dblinf_infty a b.

Lemma real_kinds : forall a x, val a = Some x -> num_wf a = true ->
  (xreal a = true) \/ (exists b, a = NDbl b).
Proof.
  intros [z|n d| |b| |d| ] x Hx Hw; cbn [val] in Hx; try discriminate Hx.
  - left; reflexivity.
  - left; reflexivity.
  - right; eexists; reflexivity.
  - left. cbn [num_wf] in Hw. cbn [xreal].
    destruct (Z.eqb_spec d 1); [reflexivity|]. destruct (Z.eqb_spec d (-1)); [reflexivity|].
    destruct (Z.eqb_spec d 0) as [->|]; [discriminate Hx|discriminate Hw].
Qed.

(* an exact real or +-oo is converted to a double (Integer, Rational) or is the symbolic infinity *)
Lemma xreal_conv : forall a, xreal a = true ->
  (exists c, conv a = Some c) \/ (exists d, a = NInf d /\ (d = 1 \/ d = -1)).
Proof.
  intros [z|n d| | | |d| ] H; try discriminate H.
  - left; eexists; reflexivity.
  - left; eexists; reflexivity.
  - right. exists d. split; [reflexivity|]. cbn [xreal] in H. apply Bool.orb_prop in H as [H|H]; apply Z.eqb_eq in H; auto.
Qed.

Theorem Lt_Le_correct_guarded : forall a b x y,
  num_wf a = true -> num_wf b = true -> val a = Some x -> val b = Some y -> lt_guard a b = false ->
  rel_lt a b = Ok (Some (ext_ltb x y)) /\ rel_le a b = Ok (Some (ext_leb x y)).
Proof.
  intros a b x y Hwa Hwb Hx Hy Hg. unfold lt_guard in Hg. apply Bool.orb_false_iff in Hg as [Hg1 Hg2].
  destruct (real_kinds a x Hx Hwa) as [Xa|[ba ->]], (real_kinds b y Hy Hwb) as [Xb|[bb ->]].
  - now apply Lt_Le_correct_exact.
  - destruct (xreal_conv a Xa) as [[ca Hca]|(d & -> & Hd)].
    + eapply Lt_Le_correct_dbl_guarded; try eassumption; try reflexivity.
      unfold has_dbl; cbn [is_dbl]; apply Bool.orb_true_r.
    + exact (proj1 (rel_inf_dbl d bb x y Hd Hx Hy Hg2)).
  - destruct (xreal_conv b Xb) as [[cb Hcb]|(d & -> & Hd)].
    + eapply Lt_Le_correct_dbl_guarded; try eassumption; reflexivity.
    + apply (rel_inf_dbl d ba y x Hd Hy Hx). unfold guard_dblinf_infty in Hg2. cbn [is_inf] in Hg2.
      now rewrite Bool.andb_true_r, Bool.orb_false_r in Hg2.
  - eapply Lt_Le_correct_dbl_guarded; try eassumption; reflexivity.
Qed.

Theorem Le_not_Lt_guarded : forall a b x y,
  num_wf a = true -> num_wf b = true -> val a = Some x -> val b = Some y -> lt_guard a b = false ->
  exists t, rel_lt b a = Ok (Some t) /\ rel_le a b = Ok (Some (negb t)).
Proof.
  intros a b x y Hwa Hwb Hx Hy Hg.
  assert (Hg' : lt_guard b a = false).
  { unfold lt_guard, guard_inexact_conv, guard_dblinf_infty in *.
    rewrite (Bool.orb_comm (conv_inexact b && is_dbl a)), (Bool.andb_comm (conv_inexact b)), (Bool.andb_comm (is_dbl b)).
    rewrite (Bool.orb_comm (is_dbl_inf b && is_inf a)), (Bool.andb_comm (is_dbl_inf b)), (Bool.andb_comm (is_inf b)).
    exact Hg. }
  exists (ext_ltb y x). split.
  - now apply (Lt_Le_correct_guarded b a y x).
  - rewrite <- ext_leb_negb_ltb. now apply (Lt_Le_correct_guarded a b x y).
Qed.
