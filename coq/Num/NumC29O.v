(* C29: order laws of Lt on exact reals and +-oo, as corollaries of Lt_correct_exact: since the
   answer IS the numeric relation, Lt is irreflexive, asymmetric, transitive and total up to
   numeric equality -- for every value, no size bound. *)
From SE Require Import Num.NumModel Num.NumQ Num.NumFloat Num.NumC29.
From Coq Require Import QArith Lia ZArith.

Lemma ext_ltb_irrefl x : ext_ltb x x = false.
Proof.
  destruct x as [|p|]; cbn [ext_ltb]; try reflexivity.
  destruct (Qlt_le_dec p p) as [H|H]; [exfalso; exact (Qlt_irrefl p H) | reflexivity].
Qed.

Lemma ext_ltb_asym x y : ext_ltb x y = true -> ext_ltb y x = false.
Proof.
  destruct x as [|p|], y as [|q|]; cbn [ext_ltb]; try reflexivity; try discriminate.
  destruct (Qlt_le_dec p q) as [H|H]; [|discriminate]. intros _.
  destruct (Qlt_le_dec q p) as [H'|H']; [|reflexivity].
  exfalso; exact (Qlt_irrefl p (Qlt_trans _ _ _ H H')).
Qed.

Lemma ext_ltb_trans x y z : ext_ltb x y = true -> ext_ltb y z = true -> ext_ltb x z = true.
Proof.
  destruct x as [|p|], y as [|q|], z as [|r|]; cbn [ext_ltb]; try reflexivity; try discriminate.
  destruct (Qlt_le_dec p q) as [H|H]; [|discriminate].
  destruct (Qlt_le_dec q r) as [H'|H']; [|discriminate]. intros _ _.
  destruct (Qlt_le_dec p r) as [H''|H'']; [reflexivity|].
  exfalso; exact (Qlt_not_le _ _ (Qlt_trans _ _ _ H H') H'').
Qed.

Lemma ext_total x y : ext_ltb x y = true \/ ext_eqb x y = true \/ ext_ltb y x = true.
Proof.
  destruct x as [|p|], y as [|q|]; cbn [ext_ltb ext_eqb]; auto.
  destruct (Qlt_le_dec p q) as [H|H]; [auto|].
  destruct (Qlt_le_dec q p) as [H'|H']; [auto|].
  right; left. apply Qeq_bool_iff. apply Qle_antisym; assumption.
Qed.

Theorem Lt_strict_order_exact : forall a b c x y z,
  xreal a = true -> xreal b = true -> xreal c = true ->
  val a = Some x -> val b = Some y -> val c = Some z ->
  rel_lt a a = Ok (Some false) /\
  (rel_lt a b = Ok (Some true) -> rel_lt b a = Ok (Some false)) /\
  (rel_lt a b = Ok (Some true) -> rel_lt b c = Ok (Some true) -> rel_lt a c = Ok (Some true)) /\
  (rel_lt a b = Ok (Some true) \/ ext_eqb x y = true \/ rel_lt b a = Ok (Some true)).
Proof.
  intros a b c x y z Ha Hb Hc Hx Hy Hz.
  rewrite (Lt_correct_exact a a x x Ha Ha Hx Hx), (Lt_correct_exact a b x y Ha Hb Hx Hy),
          (Lt_correct_exact b a y x Hb Ha Hy Hx), (Lt_correct_exact b c y z Hb Hc Hy Hz),
          (Lt_correct_exact a c x z Ha Hc Hx Hz).
  rewrite ext_ltb_irrefl. split; [reflexivity|]. split; [|split].
  - intros H. injection H as H. now rewrite (ext_ltb_asym _ _ H).
  - intros H1 H2. injection H1 as H1. injection H2 as H2. now rewrite (ext_ltb_trans _ _ _ H1 H2).
  - destruct (ext_total x y) as [H|[H|H]]; [left|right;left|right;right]; now rewrite ?H.
Qed.

(* Le: a total preorder whose kernel is numeric equality *)
Lemma ext_leb_refl x : ext_leb x x = true.
Proof. rewrite ext_leb_negb_ltb, ext_ltb_irrefl; reflexivity. Qed.

Lemma ext_ltb_cotrans x y z : ext_ltb x z = true -> ext_ltb x y = true \/ ext_ltb y z = true.
Proof.
  destruct x as [|p|], y as [|q|], z as [|r|]; cbn [ext_ltb]; auto; try discriminate.
  destruct (Qlt_le_dec p r) as [H|_]; [intros _|discriminate].
  destruct (Qlt_le_dec p q) as [|H1]; [auto|]. destruct (Qlt_le_dec q r) as [|H2]; [auto|].
  exfalso. exact (Qlt_not_le _ _ H (Qle_trans _ _ _ H2 H1)).
Qed.

Lemma ext_leb_trans x y z : ext_leb x y = true -> ext_leb y z = true -> ext_leb x z = true.
Proof.
  rewrite !ext_leb_negb_ltb, !Bool.negb_true_iff. intros H1 H2.
  destruct (ext_ltb z x) eqn:E; [|reflexivity]. destruct (ext_ltb_cotrans z y x E); congruence.
Qed.

Lemma ext_leb_total x y : ext_leb x y = true \/ ext_leb y x = true.
Proof.
  rewrite !ext_leb_negb_ltb.
  destruct (ext_ltb y x) eqn:E; [right|left; reflexivity].
  now rewrite (ext_ltb_asym _ _ E).
Qed.

Lemma ext_leb_antisym x y : ext_leb x y = true -> ext_leb y x = true -> ext_eqb x y = true.
Proof.
  rewrite !ext_leb_negb_ltb. intros H1 H2.
  apply Bool.negb_true_iff in H1. apply Bool.negb_true_iff in H2.
  destruct (ext_total x y) as [H|[H|H]]; congruence.
Qed.

Theorem Le_total_preorder_exact : forall a b c x y z,
  xreal a = true -> xreal b = true -> xreal c = true ->
  val a = Some x -> val b = Some y -> val c = Some z ->
  rel_le a a = Ok (Some true) /\
  (rel_le a b = Ok (Some true) -> rel_le b c = Ok (Some true) -> rel_le a c = Ok (Some true)) /\
  (rel_le a b = Ok (Some true) \/ rel_le b a = Ok (Some true)) /\
  (rel_le a b = Ok (Some true) -> rel_le b a = Ok (Some true) -> ext_eqb x y = true).
Proof.
  intros a b c x y z Ha Hb Hc Hx Hy Hz.
  rewrite (Le_correct_exact a a x x Ha Ha Hx Hx), (Le_correct_exact a b x y Ha Hb Hx Hy),
          (Le_correct_exact b a y x Hb Ha Hy Hx), (Le_correct_exact b c y z Hb Hc Hy Hz),
          (Le_correct_exact a c x z Ha Hc Hx Hz).
  rewrite ext_leb_refl. split; [reflexivity|]. split; [|split].
  - intros H1 H2. injection H1 as H1. injection H2 as H2. now rewrite (ext_leb_trans _ _ _ H1 H2).
  - destruct (ext_leb_total x y) as [H|H]; [left|right]; now rewrite H.
  - intros H1 H2. injection H1 as H1. injection H2 as H2. exact (ext_leb_antisym _ _ H1 H2).
Qed.
