(* Helper lemmas on rationals: Qred yields lowest terms, the mpq operations of the model
   are the Q operations up to Qeq, zpow = Z.pow. *)
From SE Require Import Num.NumModel Num.NumSpec Num.NumQi.
From Coq Require Import QArith Qreduction Lia ZArith Znumtheory Zpow_facts.
Local Open Scope Z_scope.

Lemma zpow_pos_spec : forall b p, zpow_pos b p = b ^ Zpos p.
Proof.
  intros b p. induction p as [p IH | p IH | ]; cbn [zpow_pos].
  - rewrite IH, Pos2Z.inj_xI, Z.pow_add_r, Z.pow_twice_r, Z.pow_1_r by lia. ring.
  - now rewrite IH, Pos2Z.inj_xO, Z.pow_twice_r.
  - now rewrite Z.pow_1_r.
Qed.

Lemma zpow_spec : forall b e, 0 <= e -> zpow b e = b ^ e.
Proof.
  intros b [|p|p] H; cbn [zpow].
  - reflexivity.
  - apply zpow_pos_spec.
  - lia.
Qed.

Definition qlow (q : Q) : Prop := Z.gcd (Qnum q) (Zpos (Qden q)) = 1.

Lemma q_lowest_iff : forall n d, q_lowest n d = true <-> qlow (Qmake n d).
Proof. intros. unfold q_lowest, qlow. cbn. apply Z.eqb_eq. Qed.

Lemma Qred_low : forall q, qlow (Qred q).
Proof.
  intros [n d]. unfold qlow, Qred.
  pose proof (Z.ggcd_gcd n (Zpos d)) as Hg.
  pose proof (Z.ggcd_correct_divisors n (Zpos d)) as Hd.
  destruct (Z.ggcd n (Zpos d)) as [g [n' d']]. cbn [fst snd] in *. destruct Hd as [Hn Hdd].
  cbn [Qnum Qden].
  assert (Hgpos : 0 < g).
  { subst g. pose proof (Z.gcd_nonneg n (Zpos d)).
    assert (Z.gcd n (Z.pos d) <> 0) by (intro E; apply Z.gcd_eq_0_r in E; discriminate). lia. }
  assert (Hd' : 0 < d') by nia.
  rewrite Z2Pos.id by assumption.
  assert (Hgg : Z.gcd n (Z.pos d) = g * Z.gcd n' d').
  { rewrite Hn, Hdd. rewrite Z.gcd_mul_mono_l_nonneg by lia. reflexivity. }
  rewrite <- Hg in Hgg at 1.
  assert (Z.gcd n' d' = 1) by nia. assumption.
Qed.

Lemma qlow_Qred_id : forall q, qlow q -> Qred q = q.
Proof.
  intros [n d] H. unfold qlow in H. cbn [Qnum Qden] in H. unfold Qred.
  pose proof (Z.ggcd_gcd n (Zpos d)) as Hg.
  pose proof (Z.ggcd_correct_divisors n (Zpos d)) as Hd.
  destruct (Z.ggcd n (Zpos d)) as [g [n' d']]. cbn [fst snd] in *. destruct Hd as [Hn Hdd].
  rewrite H in Hg. subst g. rewrite Z.mul_1_l in Hn, Hdd. subst n'. rewrite <- Hdd. reflexivity.
Qed.

(* two fractions in lowest terms with the same value are the same fraction *)
Lemma qlow_eq : forall p q : Q, qlow p -> qlow q -> (p == q)%Q -> p = q.
Proof.
  intros p q Hp Hq E.
  rewrite <- (qlow_Qred_id p Hp), <- (qlow_Qred_id q Hq). now apply Qred_complete.
Qed.

Lemma qlow_inject : forall z, qlow (inject_Z z).
Proof. intros z. unfold qlow. cbn. apply Z.gcd_1_r. Qed.

Lemma qlow_opp : forall q, qlow q -> qlow (Qopp q).
Proof. intros [n d]. unfold qlow. cbn. intros H. now rewrite Z.gcd_opp_l. Qed.

Lemma qlow_inv : forall q, qlow q -> qlow (Qinv q).
Proof.
  intros [n d]. unfold qlow, Qinv. cbn [Qnum Qden].
  destruct n as [|p|p]; cbn [Qnum Qden]; intros H.
  - reflexivity.
  - rewrite Z.gcd_comm. exact H.
  - rewrite Z.gcd_comm. rewrite <- Z.gcd_opp_l in H. cbn in H.
    change (Z.neg d) with (- Z.pos d). rewrite Z.gcd_opp_r. exact H.
Qed.

Lemma qlow_pow : forall n d e, 0 <= e -> qlow (Qmake n d) ->
  qlow (Qmake (n ^ e) (Z.to_pos (Zpos d ^ e))).
Proof.
  intros n d e He H. unfold qlow in *. cbn [Qnum Qden] in *.
  assert (0 < Zpos d ^ e) by (apply Z.pow_pos_nonneg; lia).
  rewrite Z2Pos.id by assumption.
  apply Zgcd_1_rel_prime. apply rel_prime_Zpower; try lia.
  apply Zgcd_1_rel_prime. exact H.
Qed.

Lemma qadd_eq : forall a b, (qadd a b == a + b)%Q.
Proof. intros. unfold qadd. apply Qred_correct. Qed.
Lemma qsub_eq : forall a b, (qsub a b == a - b)%Q.
Proof. intros. unfold qsub. apply Qred_correct. Qed.
Lemma qmul_eq : forall a b, (qmul a b == a * b)%Q.
Proof. intros. unfold qmul. apply Qred_correct. Qed.
Lemma qdiv_eq : forall a b, (qdiv a b == a / b)%Q.
Proof. intros. unfold qdiv. apply Qred_correct. Qed.
Lemma qneg_eq : forall a, (qneg a == - a)%Q.
Proof. intros. reflexivity. Qed.

Lemma qadd_low : forall a b, qlow (qadd a b). Proof. intros; apply Qred_low. Qed.
Lemma qsub_low : forall a b, qlow (qsub a b). Proof. intros; apply Qred_low. Qed.
Lemma qmul_low : forall a b, qlow (qmul a b). Proof. intros; apply Qred_low. Qed.
Lemma qdiv_low : forall a b, qlow (qdiv a b). Proof. intros; apply Qred_low. Qed.

Lemma qcanon_eq : forall n d, d <> 0 -> (qcanon n d == inject_Z n / inject_Z d)%Q.
Proof.
  intros n d Hd. unfold qcanon. rewrite Qred_correct.
  unfold Qeq, Qdiv, Qmult, Qinv, inject_Z. cbn [Qnum Qden].
  destruct d as [|p|p]; try congruence; cbn; lia.
Qed.
Lemma qcanon_low : forall n d, qlow (qcanon n d). Proof. intros; apply Qred_low. Qed.

(* mpq_equal on canonical operands is equality of the fields *)
Lemma q_eqb_eq : forall p q, q_eqb p q = true -> p = q.
Proof.
  intros [n d] [n' d'] H. unfold q_eqb in H. cbn [Qnum Qden] in H.
  apply andb_prop in H as [H1 H2]. apply Z.eqb_eq in H1. apply Pos.eqb_eq in H2. now subst.
Qed.
Lemma q_eqb_refl : forall p, q_eqb p p = true.
Proof. intros [n d]. unfold q_eqb. cbn [Qnum Qden]. now rewrite Z.eqb_refl, Pos.eqb_refl. Qed.

(* the zero tests of the code look at the numerator *)
Lemma q_num_zero : forall q, Qnum q = 0 <-> (q == 0)%Q.
Proof. intros [n d]. unfold Qeq. cbn. lia. Qed.

Lemma q_is_zero_iff : forall q, q_is_zero q = true <-> (q == 0)%Q.
Proof. intros q. unfold q_is_zero. rewrite Z.eqb_eq. apply q_num_zero. Qed.

Lemma q_sumsq_zero : forall a b : Q, (a * a + b * b == 0)%Q -> (a == 0)%Q /\ (b == 0)%Q.
Proof. intros a b. apply (qi_zero_norm2 (a, b)). Qed.
