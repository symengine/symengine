(* C29: the defect classes excluded by the guarded theorems are genuine refutations (each is
   replayed on the library by the check), and the repaired Le on equal values of different kinds. *)
From SE Require Import Num.NumModel.
From Coq Require Import List Bool QArith.

Local Open Scope Z_scope.
Theorem Le_correct_refuted :
  (* Le(2^53 + 1, RealDouble(2^53)) = True;  Le(oo, RealDouble(inf)) = False *)
  (exists a b x y, val a = Some x /\ val b = Some y /\ ext_leb x y = false /\ rel_le a b = Ok (Some true) /\
                   guard_inexact_conv a b = true) /\
  (exists a b x y, val a = Some x /\ val b = Some y /\ ext_leb x y = true /\ rel_le a b = Ok (Some false) /\
                   guard_dblinf_infty a b = true).
Proof.
  split.
  - exists (NInt 9007199254740993), (NDbl 4845873199050653696). do 2 eexists.
    split; [vm_compute; reflexivity|]. split; [vm_compute; reflexivity|]. vm_compute. repeat split; reflexivity.
  - exists (NInf 1), (NDbl 9218868437227405312). do 2 eexists.
    split; [vm_compute; reflexivity|]. split; [vm_compute; reflexivity|]. vm_compute. repeat split; reflexivity.
Qed.

(* equal values of different kinds: Le(1, 1.0) = True, Lt(1.0, 1) = False (repaired, commit 117ad73) *)
Example Le_equal_diffkind :
  rel_le (NInt 1) (NDbl 4607182418800017408) = Ok (Some true) /\
  rel_le (NDbl 4607182418800017408) (NInt 1) = Ok (Some true) /\
  rel_lt (NDbl 4607182418800017408) (NInt 1) = Ok (Some false).
Proof. vm_compute. repeat split; reflexivity. Qed.

Theorem Lt_correct_refuted :
  (* Lt(RealDouble(2^53), 2^53 + 1) = False;  Lt(RealDouble(inf), oo) = True *)
  (exists a b x y, val a = Some x /\ val b = Some y /\ ext_ltb x y = true /\ rel_lt a b = Ok (Some false) /\
                   guard_inexact_conv a b = true) /\
  (exists a b x y, val a = Some x /\ val b = Some y /\ ext_ltb x y = false /\ rel_lt a b = Ok (Some true) /\
                   guard_dblinf_infty a b = true).
Proof.
  split.
  - exists (NDbl 4845873199050653696), (NInt 9007199254740993). do 2 eexists.
    split; [vm_compute; reflexivity|]. split; [vm_compute; reflexivity|]. vm_compute. repeat split; reflexivity.
  - exists (NDbl 9218868437227405312), (NInf 1). do 2 eexists.
    split; [vm_compute; reflexivity|]. split; [vm_compute; reflexivity|]. vm_compute. repeat split; reflexivity.
Qed.
