(* C05: the exact classes (Integer, Rational, Complex) compute arithmetic in Q(i) and
   return normalised results. *)
From SE Require Import Num.NumModel Num.NumSpec Num.NumQ Num.NumQi.
From Coq Require Import QArith Qreduction Lia ZArith Setoid Morphisms Field.
Local Open Scope Z_scope.

(* the result of an operation is an exact number of value v *)
Definition has_val (r : res number) (v : qi) : Prop :=
  exists n z, r = Ok n /\ valQi n = Some z /\ qi_eq z v.

Lemma has_val_proper : forall r v w, qi_eq v w -> has_val r v -> has_val r w.
Proof. intros r v w H (n & z & H1 & H2 & H3). exists n, z. split; [assumption|]. split; [assumption|]. now transitivity v. Qed.

#[local] Instance has_val_morphism r : Proper (qi_eq ==> iff) (has_val r).
Proof. intros v w H. split; apply has_val_proper; [assumption|now symmetry]. Qed.

(* the three kinds that have a value *)
Inductive exact_view : number -> qi -> Prop :=
| ViewInt z : exact_view (NInt z) (inject_Z z, 0%Q)
| ViewRat n d : exact_view (NRat n d) (Qmake n d, 0%Q)
| ViewCplx rn rd imn imd : exact_view (NCplx rn rd imn imd) (Qmake rn rd, Qmake imn imd).

Lemma valQi_view : forall a x, valQi a = Some x -> exact_view a x.
Proof. intros a x H. destruct a; try discriminate H; injection H as <-; constructor. Qed.

(* every exact result is built by one of three constructors; their values *)
Lemma int_val : forall z a b, (inject_Z z == a)%Q -> (0 == b)%Q -> has_val (Ok (NInt z)) (a, b).
Proof. intros z a b Ha Hb. exists (NInt z), (inject_Z z, 0%Q). repeat split; assumption. Qed.

Lemma from_mpq_val : forall q a b, (q == a)%Q -> (0 == b)%Q -> has_val (Ok (from_mpq q)) (a, b).
Proof.
  intros [n d] a b Ha Hb. unfold from_mpq. cbn [Qnum Qden].
  destruct (Pos.eqb_spec d 1) as [->|_].
  - now apply int_val.
  - exists (NRat n d), (Qmake n d, 0%Q). repeat split; assumption.
Qed.

Lemma cplx_from_mpq_val : forall re im a b, (re == a)%Q -> (im == b)%Q ->
  has_val (Ok (cplx_from_mpq re im)) (a, b).
Proof.
  intros re im a b Ha Hb. unfold cplx_from_mpq.
  destruct (Z.eqb_spec (Qnum im) 0) as [Hz|_].
  - apply from_mpq_val; [exact Ha|]. apply q_num_zero in Hz. now rewrite <- Hz.
  - exists (NCplx (Qnum re) (Qden re) (Qnum im) (Qden im)), (re, im).
    destruct re, im. repeat split; assumption.
Qed.

(* add / sub / mul:
   each pair of kinds ends in one of the three constructors on mpq expressions; the value
   lemma of the constructor leaves an identity of Q. *)
Theorem num_add_correct : forall a b x y,
  valQi a = Some x -> valQi b = Some y -> has_val (num_add a b) (qi_add x y).
Proof.
  intros a b x y Ha Hb. destruct (valQi_view a x Ha), (valQi_view b y Hb);
    unfold num_add, qi_add; cbn [add_step fst snd];
    first [apply int_val | apply from_mpq_val | apply cplx_from_mpq_val];
    rewrite ?qadd_eq, ?inject_Z_plus; unfold qz; ring.
Qed.

Theorem num_sub_correct : forall a b x y,
  valQi a = Some x -> valQi b = Some y -> has_val (num_sub a b) (qi_sub x y).
Proof.
  intros a b x y Ha Hb. destruct (valQi_view a x Ha), (valQi_view b y Hb);
    unfold num_sub, qi_sub; cbn [sub_step num_rsub fst snd];
    first [apply int_val | apply from_mpq_val | apply cplx_from_mpq_val];
    rewrite ?qsub_eq; unfold qneg, qz, Z.sub; rewrite ?inject_Z_plus, ?inject_Z_opp; ring.
Qed.

Theorem num_mul_correct : forall a b x y,
  valQi a = Some x -> valQi b = Some y -> has_val (num_mul a b) (qi_mul x y).
Proof.
  intros a b x y Ha Hb. destruct (valQi_view a x Ha), (valQi_view b y Hb);
    unfold num_mul, qi_mul; cbn [mul_step fst snd];
    first [apply int_val | apply from_mpq_val | apply cplx_from_mpq_val];
    rewrite ?qsub_eq, ?qadd_eq, ?qmul_eq, ?inject_Z_mult; unfold qz; ring.
Qed.
(* division: the zero test the code applies to an exact operand *)
Definition zero_test (a : number) : bool :=
  match a with
  | NInt z => z =? 0
  | NRat n _ => n =? 0
  | NCplx rn rd imn imd =>
      q_is_zero (qadd (qmul (Qmake rn rd) (Qmake rn rd)) (qmul (Qmake imn imd) (Qmake imn imd)))
  | _ => false
  end.

Lemma real_zero_iff : forall q : Q, qi_is_zero (q, 0%Q) <-> (q == 0)%Q.
Proof. intros q. split; [intros [H _]; exact H | intros H; split; [exact H|reflexivity]]. Qed.

(* ... decides whether its value is zero *)
Lemma zero_test_spec : forall a x, valQi a = Some x -> reflect (qi_is_zero x) (zero_test a).
Proof.
  intros a x Ha. apply iff_reflect. destruct (valQi_view a x Ha); cbn [zero_test].
  - rewrite real_zero_iff, Z.eqb_eq. symmetry. apply (q_num_zero (inject_Z z)).
  - rewrite real_zero_iff, Z.eqb_eq. symmetry. apply (q_num_zero (Qmake n d)).
  - rewrite q_is_zero_iff, qadd_eq, !qmul_eq. apply (qi_zero_norm2 (Qmake rn rd, Qmake imn imd)).
Qed.

Definition zero_result (x : qi) (r : res number) : Prop :=
  (qi_is_zero x -> r = Ok NNaN) /\ (~ qi_is_zero x -> r = Ok (NInf 0)).

Lemma zero_div_result : forall x t, reflect (qi_is_zero x) t -> zero_result x (Ok (zero_div t)).
Proof. intros x t [H|H]; split; intros H'; try contradiction; reflexivity. Qed.

Lemma qi_div_real : forall a b q : Q, ~ (q == 0)%Q ->
  qi_eq (qi_div (a, b) (q, 0%Q)) ((a / q)%Q, (b / q)%Q).
Proof. intros a b q Hq. unfold qi_div, qi_norm2. cbn [fst snd]. split; cbn [fst snd]; field; exact Hq. Qed.

Lemma real_nonzero : forall q : Q, ~ qi_is_zero (q, 0%Q) -> ~ (q == 0)%Q.
Proof. intros q H E. now apply H, real_zero_iff. Qed.

(* a zero divisor gives zoo or nan by the zero test of the dividend; otherwise the quotient *)
Lemma num_div_cases : forall a b x y,
  valQi a = Some x -> valQi b = Some y -> guard_rat_div_cplx a b = false ->
  if zero_test b then num_div a b = Ok (zero_div (zero_test a)) else has_val (num_div a b) (qi_div x y).
Proof.
  intros a b x y Ha Hb Hg. pose proof (zero_test_spec b y Hb) as Zb.
  destruct (valQi_view b y Hb) as [zb|nb db|rnb rdb inb idb], (valQi_view a x Ha);
    try discriminate Hg; unfold num_div; cbn [div_step num_rdiv zero_test] in *;
    destruct Zb as [_|Ny]; try reflexivity.
  (* Integer or Rational divisor: the parts are divided by it *)
  1-6: apply real_nonzero in Ny; rewrite (qi_div_real _ _ _ Ny);
    first [apply from_mpq_val | apply cplx_from_mpq_val];
    rewrite ?qdiv_eq, ?qcanon_eq by (intros ->; now apply Ny); unfold Qdiv, qz; ring.
  (* Complex divisor: times the conjugate, over the squared modulus *)
  all: unfold qi_div, qi_norm2; cbn [fst snd];
    apply cplx_from_mpq_val; rewrite qdiv_eq, ?qadd_eq, !qmul_eq;
    unfold qneg, qz; rewrite ?inject_Z_opp; apply Qdiv_comp; ring.
Qed.

Theorem num_div_correct : forall a b x y,
  valQi a = Some x -> valQi b = Some y -> ~ qi_is_zero y -> guard_rat_div_cplx a b = false ->
  has_val (num_div a b) (qi_div x y).
Proof.
  intros a b x y Ha Hb Hy Hg. pose proof (num_div_cases a b x y Ha Hb Hg) as H.
  destruct (zero_test_spec b y Hb); [contradiction|exact H].
Qed.

Theorem div_by_exact_zero : forall a b x y,
  valQi a = Some x -> valQi b = Some y -> qi_is_zero y -> guard_rat_div_cplx a b = false ->
  zero_result x (num_div a b).
Proof.
  intros a b x y Ha Hb Hy Hg. pose proof (num_div_cases a b x y Ha Hb Hg) as H.
  destruct (zero_test_spec b y Hb); [|contradiction].
  rewrite H. apply zero_div_result, zero_test_spec, Ha.
Qed.

(* the other entry points *)
Theorem mk_rat_zero_den : forall n, mk_rat n 0 = Ok (if n =? 0 then NNaN else NInf 0).
Proof. intros n. unfold mk_rat. cbn [Z.eqb]. destruct (n =? 0); reflexivity. Qed.

Theorem int_rdiv_zero : forall y, num_rdiv (NInt 0) (NInt y) = Ok (if y =? 0 then NNaN else NInf 0).
Proof. intros y. cbn [num_rdiv Z.eqb]. unfold zero_div. destruct (y =? 0); reflexivity. Qed.

Theorem mk_rat_correct : forall n d, d <> 0 ->
  has_val (mk_rat n d) ((inject_Z n / inject_Z d)%Q, 0%Q).
Proof.
  intros n d Hd. unfold mk_rat. destruct (Z.eqb_spec d 0); [contradiction|].
  apply from_mpq_val; [now apply qcanon_eq|reflexivity].
Qed.

#[global] Instance qi_powz_proper : Proper (qi_eq ==> eq ==> qi_eq) qi_powz.
Proof. intros x y H e e' <-. destruct e; cbn [qi_powz]; now rewrite ?H. Qed.

(* what Integer::powint and Rational::powrat compute for an exponent in range *)
Lemma fits_ulong_pos : forall p, Z.pos p <? TWO64 = true -> fits_ulong (Z.pos p) = true.
Proof. intros p H. unfold fits_ulong. now rewrite H. Qed.

Lemma int_powint_pos : forall b p, Z.pos p <? TWO64 = true ->
  int_powint b (Z.pos p) = Ok (NInt (b ^ Z.pos p)).
Proof. intros b p H. unfold int_powint. now rewrite (fits_ulong_pos p H), zpow_spec. Qed.

Lemma int_powint_neg : forall b p, Z.pos p <? TWO64 = true ->
  int_powint b (Z.neg p) =
  Ok (if b ^ Z.pos p =? 0 then NInf 0
      else from_mpq (qcanon (Z.sgn (b ^ Z.pos p)) (Z.abs (b ^ Z.pos p)))).
Proof.
  intros b p H. unfold int_powint, int_pow_negint. cbn [Z.opp].
  rewrite (fits_ulong_pos p H), (zpow_spec b (Z.pos p)) by lia. now destruct (b ^ Z.pos p =? 0).
Qed.

Lemma rat_powrat_pos : forall n d p, Z.pos p <? TWO64 = true ->
  rat_powrat n d (Z.pos p) = Ok (from_mpq (Qmake (n ^ Z.pos p) (Z.to_pos (Z.pos d ^ Z.pos p)))).
Proof. intros n d p H. unfold rat_powrat. cbn [Z.ltb Z.compare]. now rewrite (fits_ulong_pos p H), !zpow_spec. Qed.

Lemma rat_powrat_neg : forall n d p, Z.pos p <? TWO64 = true ->
  rat_powrat n d (Z.neg p) =
  Ok (from_mpq (Qinv (Qmake (n ^ Z.pos p) (Z.to_pos (Z.pos d ^ Z.pos p))))).
Proof. intros n d p H. unfold rat_powrat. cbn [Z.ltb Z.compare Z.opp]. now rewrite (fits_ulong_pos p H), !zpow_spec. Qed.

(* pow with a negative exponent of 0 (Integer::pow_negint, repaired in commit 5eef324) *)
Theorem pow_zero_negative : forall e, e < 0 -> Z.abs e <? TWO64 = true ->
  num_pow (NInt 0) (NInt e) = Ok (NInf 0).
Proof.
  intros [|p|p] He Hr; try lia. unfold num_pow. cbn [pow_step].
  now rewrite (int_powint_neg 0 p Hr), Z.pow_0_l.
Qed.

Lemma sgn_abs_inv : forall j, j <> 0 -> (inject_Z (Z.sgn j) / inject_Z (Z.abs j) == 1 / inject_Z j)%Q.
Proof.
  intros [|p|p] H; try congruence; unfold Qdiv, Qinv, Qmult, Qeq, inject_Z; cbn; lia.
Qed.

(* a power of a real base is real; the inverse of a non-zero real (q, 0) is (1/q, 0) *)
Lemma int_powint_correct : forall b e,
  Z.abs e <? TWO64 = true -> (0 <= e \/ ~ qi_is_zero (inject_Z b, 0%Q)) ->
  has_val (int_powint b e) (qi_powz (inject_Z b, 0%Q) e).
Proof.
  intros b e Hr Hz. destruct e as [|p|p]; cbn [Z.abs qi_powz] in *.
  - apply int_val; reflexivity.
  - rewrite (int_powint_pos b p Hr).
    eapply has_val_proper; [symmetry; apply qi_pow_nat_int|].
    rewrite positive_nat_Z. apply int_val; reflexivity.
  - assert (Hj : b ^ Z.pos p <> 0).
    { apply Z.pow_nonzero; [|lia]. destruct Hz as [Hz|Hz]; [lia|]. intros ->. apply Hz. split; reflexivity. }
    rewrite (int_powint_neg b p Hr), (proj2 (Z.eqb_neq _ _) Hj).
    eapply has_val_proper.
    + symmetry. unfold qi_inv. rewrite qi_pow_nat_int, positive_nat_Z. apply qi_div_real.
      intros E. apply Hj, (inject_Z_injective _ 0), E.
    + apply from_mpq_val; [rewrite qcanon_eq by lia; now apply sgn_abs_inv|unfold Qdiv; ring].
Qed.

Lemma rat_powrat_correct : forall n d e,
  Z.abs e <? TWO64 = true -> (0 <= e \/ ~ qi_is_zero (Qmake n d, 0%Q)) ->
  has_val (rat_powrat n d e) (qi_powz (Qmake n d, 0%Q) e).
Proof.
  intros n d e Hr Hz. destruct e as [|p|p]; cbn [Z.abs qi_powz] in *.
  - apply int_val; reflexivity.
  - rewrite (rat_powrat_pos n d p Hr).
    eapply has_val_proper; [symmetry; apply qi_pow_nat_rat|].
    rewrite positive_nat_Z. apply from_mpq_val; reflexivity.
  - assert (Hj : n ^ Z.pos p <> 0).
    { apply Z.pow_nonzero; [|lia]. destruct Hz as [Hz|Hz]; [lia|]. intros ->. apply Hz. split; reflexivity. }
    rewrite (rat_powrat_neg n d p Hr).
    eapply has_val_proper.
    + symmetry. unfold qi_inv. rewrite qi_pow_nat_rat, positive_nat_Z. apply qi_div_real.
      intros E. apply Hj. exact (proj2 (q_num_zero _) E).
    + apply from_mpq_val; unfold Qdiv; ring.
Qed.

(* square and multiply = iterated multiplication *)
Lemma cq_mul_eq : forall r p, qi_eq (cq_mul r p) (qi_mul r p).
Proof. intros [a b] [c d]. unfold cq_mul, qi_mul. cbn [fst snd]. split; cbn [fst snd]; rewrite ?qsub_eq, ?qadd_eq, !qmul_eq; reflexivity. Qed.
Lemma cq_sqr_eq : forall p, qi_eq (cq_sqr p) (qi_mul p p).
Proof.
  intros [c d]. unfold cq_sqr, qi_mul, qz. cbn [fst snd]. split; cbn [fst snd]; rewrite ?qsub_eq, !qmul_eq.
  - reflexivity.
  - change (inject_Z 2) with (2 # 1)%Q. ring.
Qed.

Theorem pow_number_loop_correct : forall n r p r' p',
  qi_eq r r' -> qi_eq p p' ->
  qi_eq (pow_number_loop r p n) (qi_mul r' (qi_pow_nat p' (Pos.to_nat n))).
Proof.
  induction n as [n IH|n IH|]; intros r p r' p' Hr Hp; cbn [pow_number_loop].
  - rewrite (IH (cq_mul r p) (cq_sqr p) (qi_mul r' p') (qi_mul p' p')).
    + rewrite qi_pow_nat_sqr. rewrite Pos2Nat.inj_xI. cbn [qi_pow_nat].
      rewrite <- qi_mul_assoc. reflexivity.
    + rewrite cq_mul_eq. now rewrite Hr, Hp.
    + rewrite cq_sqr_eq. now rewrite Hp.
  - rewrite (IH r (cq_sqr p) r' (qi_mul p' p')).
    + rewrite qi_pow_nat_sqr. now rewrite Pos2Nat.inj_xO.
    + assumption.
    + rewrite cq_sqr_eq. now rewrite Hp.
  - rewrite cq_mul_eq. rewrite Hr, Hp. change (Pos.to_nat 1) with 1%nat. cbn [qi_pow_nat].
    now rewrite qi_mul_1_r.
Qed.

Lemma pow_number_val : forall x n, 0 <= n ->
  has_val (Ok (pow_number x n)) (qi_pow_nat x (Z.to_nat n)).
Proof.
  intros x n Hn. unfold pow_number. destruct n as [|p|p]; try lia; cbn [Z.to_nat].
  - apply cplx_from_mpq_val; reflexivity.
  - assert (H : qi_eq (pow_number_loop (qz 1, qz 0) x p) (qi_pow_nat x (Pos.to_nat p))).
    { etransitivity; [apply pow_number_loop_correct; reflexivity|apply qi_mul_1_l]. }
    destruct H as [Ha Hb]. destruct (qi_pow_nat x (Pos.to_nat p)). now apply cplx_from_mpq_val.
Qed.

(* a purely imaginary base: (y i)^e = y^e i^(e mod 4) *)
Lemma neg_mod4 : forall p, Z.neg p mod 4 = (- (Z.pos p mod 4)) mod 4.
Proof. intros p. symmetry. apply (Zminus_mod_idemp_r 0 (Z.pos p) 4). Qed.

Lemma powz_imag : forall y e, (0 <= e \/ ~ qi_is_zero y) ->
  qi_eq (qi_powz (qi_mul y qi_i) e) (qi_mul (qi_powz y e) (unit_of (e mod 4))).
Proof.
  intros y e H. destruct e as [|p|p]; cbn [qi_powz].
  - cbn. now rewrite qi_mul_1_l.
  - rewrite qi_pow_nat_mul_base, qi_i_pow. now rewrite positive_nat_Z.
  - assert (Hy : ~ qi_is_zero y) by (destruct H; [lia|assumption]).
    rewrite qi_pow_nat_mul_base, qi_i_pow, positive_nat_Z.
    rewrite qi_inv_mul.
    + rewrite unit_of_inv by (apply Z.mod_pos_bound; lia). now rewrite neg_mod4.
    + now apply qi_pow_nat_nonzero.
    + apply unit_of_nonzero.
Qed.

Definition pow_in_range (a : number) (e : Z) : bool :=
  match a with
  | NInt _ | NRat _ _ => Z.abs e <? TWO64
  | NCplx rn _ _ _ => if rn =? 0 then Z.abs e <? TWO64 else Z.abs e <? TWO63
  | _ => false
  end.

Lemma from_mpq_cases : forall n d,
  (d = 1%positive /\ from_mpq (Qmake n d) = NInt n) \/ from_mpq (Qmake n d) = NRat n d.
Proof.
  intros n d. unfold from_mpq. cbn [Qnum Qden]. destruct (Pos.eqb_spec d 1); [left|right]; auto.
Qed.

Definition unit_num (e : Z) : number :=
  match e mod 4 with 0 => NInt 1 | 1 => I_unit | 2 => NInt (-1) | _ => NCplx 0 1 (-1) 1 end.

Lemma unit_val : forall e, valQi (unit_num e) = Some (unit_of (e mod 4)).
Proof. intros e. unfold unit_num. destruct (e mod 4) as [|[[|[]|]|[|[]|]|]|]; reflexivity. Qed.

Lemma fits_slong_abs : forall e, Z.abs e <? TWO63 = true -> fits_slong e = true.
Proof.
  intros e H. apply Z.ltb_lt in H. unfold fits_slong.
  apply andb_true_intro; split; [apply Z.leb_le|apply Z.ltb_lt]; lia.
Qed.

(* Complex::powcomp raises the imaginary part of a purely imaginary base as an Integer or a Rational *)
Definition real_pow (n : Z) (d : positive) (e : Z) : res number :=
  match from_mpq (Qmake n d) with
  | NInt z => int_powint z e
  | NRat n d => rat_powrat n d e
  | _ => ErrFuel
  end.

Lemma real_pow_correct : forall n d e,
  Z.abs e <? TWO64 = true -> (0 <= e \/ ~ qi_is_zero (Qmake n d, 0%Q)) ->
  has_val (real_pow n d e) (qi_powz (Qmake n d, 0%Q) e).
Proof.
  intros n d e Hr Hz. unfold real_pow. destruct (from_mpq_cases n d) as [[-> E]|E]; rewrite E;
    [now apply int_powint_correct|now apply rat_powrat_correct].
Qed.

Theorem num_powint_correct : forall a e x,
  valQi a = Some x -> pow_in_range a e = true -> (0 <= e \/ ~ qi_is_zero x) ->
  has_val (num_pow a (NInt e)) (qi_powz x e).
Proof.
  intros a e x Ha Hr Hz.
  destruct (valQi_view a x Ha) as [z|n d|rn rd imn imd]; unfold num_pow; cbn [pow_step pow_in_range] in *.
  - now apply int_powint_correct.
  - now apply rat_powrat_correct.
  - unfold cplx_powcomp. fold (unit_num e) (real_pow imn imd e). destruct (Z.eqb_spec rn 0) as [->|Hrn].
    + (* purely imaginary base: im^e, by powint or powrat, times the unit *)
      assert (Hx : qi_eq (Qmake 0 rd, Qmake imn imd) (qi_mul (Qmake imn imd, 0%Q) qi_i)).
      { unfold qi_mul, qi_i. cbn [fst snd]. split; cbn [fst snd]; [|ring]. unfold Qeq; cbn; ring. }
      assert (Hz' : 0 <= e \/ ~ qi_is_zero (Qmake imn imd, 0%Q)).
      { destruct Hz as [H|H]; [now left|right]. intros [E _]. apply H.
        split; cbn [fst snd] in *; [unfold Qeq; cbn; ring|exact E]. }
      destruct (real_pow_correct imn imd e Hr Hz') as (n0 & z0 & -> & Hv0 & Hz0). cbn [bind].
      rewrite Hx, (powz_imag _ _ Hz'), <- Hz0. exact (num_mul_correct _ _ _ _ Hv0 (unit_val e)).
    + (* general base: pow_number, inverted for a negative exponent *)
      rewrite (fits_slong_abs e Hr).
      assert (Hnz : ~ qi_is_zero (Qmake rn rd, Qmake imn imd)).
      { intros [E _]. apply Hrn. exact (proj2 (q_num_zero (Qmake rn rd)) E). }
      destruct e as [|p|p]; cbn [Z.ltb Z.compare qi_powz Z.opp].
      * apply (num_div_correct (NInt 1) (NInt 1) qi_one qi_one eq_refl eq_refl); [|reflexivity].
        intros [E _]. discriminate E.
      * exact (pow_number_val _ (Z.pos p) (Pos2Z.is_nonneg p)).
      * destruct (pow_number_val (Qmake rn rd, Qmake imn imd) (Z.pos p) (Pos2Z.is_nonneg p))
          as (nb & zb & [= <-] & Hvb & Hzb). cbn [Z.to_nat] in Hzb.
        unfold qi_inv. rewrite <- Hzb. apply (num_div_correct (NInt 1) _ _ _ eq_refl Hvb); [|reflexivity].
        unfold qi_is_zero. rewrite Hzb. now apply qi_pow_nat_nonzero.
Qed.

Lemma wf_from_mpq : forall q, qlow q -> num_wf (from_mpq q) = true.
Proof.
  intros [n d] H. unfold from_mpq. cbn [Qnum Qden]. destruct (Pos.eqb_spec d 1) as [E|E]; cbn [num_wf].
  - reflexivity.
  - apply andb_true_intro. split; [now apply q_lowest_iff|]. apply Bool.negb_true_iff. now apply Pos.eqb_neq.
Qed.

Lemma wf_cplx_from_mpq : forall re im, qlow re -> qlow im -> num_wf (cplx_from_mpq re im) = true.
Proof.
  intros re im Hre Him. unfold cplx_from_mpq. destruct (Z.eqb_spec (Qnum im) 0) as [E|E].
  - now apply wf_from_mpq.
  - cbn [num_wf]. destruct re as [rn rd], im as [imn imd]. unfold qlow in *. simpl Qnum in *. simpl Qden in *.
    repeat (apply andb_true_intro; split); try (apply q_lowest_iff; assumption).
    apply Bool.negb_true_iff. now apply Z.eqb_neq.
Qed.

Lemma wf_zero_div : forall b, num_wf (zero_div b) = true.
Proof. intros []; reflexivity. Qed.

Lemma from_mpq_exact : forall q, num_is_exact (from_mpq q) = true.
Proof. intros q. unfold from_mpq. destruct (_ =? _)%positive; reflexivity. Qed.
Lemma cplx_from_mpq_exact : forall re im, num_is_exact (cplx_from_mpq re im) = true.
Proof. intros. unfold cplx_from_mpq. destruct (_ =? _); [apply from_mpq_exact|reflexivity]. Qed.

Lemma wf_rat : forall n d, num_wf (NRat n d) = true -> qlow (Qmake n d).
Proof. intros n d H. cbn [num_wf] in H. apply andb_prop in H as [H _]. now apply q_lowest_iff. Qed.
Lemma wf_cplx : forall rn rd imn imd, num_wf (NCplx rn rd imn imd) = true ->
  qlow (Qmake rn rd) /\ qlow (Qmake imn imd) /\ imn <> 0.
Proof.
  intros rn rd imn imd H. cbn [num_wf] in H. apply andb_prop in H as [H H3]. apply andb_prop in H as [H1 H2].
  repeat split; try (now apply q_lowest_iff). apply Bool.negb_true_iff in H3. now apply Z.eqb_neq.
Qed.

(* a number of an exact kind in normal form, or the zoo / nan produced by a zero divisor *)
Definition good (r : number) : Prop :=
  num_wf r = true /\ (num_is_exact r = true \/ r = NNaN \/ r = NInf 0).

Lemma good_from_mpq : forall q, qlow q -> good (from_mpq q).
Proof. intros q H. split; [now apply wf_from_mpq|left; apply from_mpq_exact]. Qed.
Lemma good_cplx : forall re im, qlow re -> qlow im -> good (cplx_from_mpq re im).
Proof. intros. split; [now apply wf_cplx_from_mpq|left; apply cplx_from_mpq_exact]. Qed.
Lemma good_int : forall z, good (NInt z).
Proof. intros z. split; [reflexivity|left; reflexivity]. Qed.
Lemma good_zoo : good (NInf 0).
Proof. split; [reflexivity|right; right; reflexivity]. Qed.
Lemma good_nan : good NNaN.
Proof. split; [reflexivity|right; left; reflexivity]. Qed.
Lemma good_zero_div : forall b, good (zero_div b).
Proof. intros []; [apply good_nan|apply good_zoo]. Qed.

#[local] Hint Resolve qadd_low qsub_low qmul_low qdiv_low qcanon_low qlow_opp qlow_inject qlow_inv
  good_from_mpq good_cplx good_zero_div good_int good_zoo good_nan : nwf.

(* the kinds of a normalised exact operand, with what num_wf says of its fields *)
Inductive wf_view : number -> Prop :=
| WfInt z : wf_view (NInt z)
| WfRat n d : qlow (Qmake n d) -> wf_view (NRat n d)
| WfCplx rn rd imn imd : qlow (Qmake rn rd) -> qlow (Qmake imn imd) -> wf_view (NCplx rn rd imn imd).

Lemma exact_wf_view : forall a, num_is_exact a = true -> num_wf a = true -> wf_view a.
Proof.
  intros a E W. destruct a; try discriminate E; constructor;
    first [exact (wf_rat _ _ W) | apply (wf_cplx _ _ _ _ W)].
Qed.

(* the result is a constructor applied to mpq operations, each of which yields lowest terms *)
Ltac finish_good :=
  intros Hr; injection Hr as <-; unfold qneg, qz; auto 6 with nwf.

Lemma add_good : forall a b r, num_is_exact a = true -> num_is_exact b = true ->
  num_wf a = true -> num_wf b = true -> num_add a b = Ok r -> good r.
Proof.
  intros a b r Ha Hb Hwa Hwb. destruct (exact_wf_view a Ha Hwa), (exact_wf_view b Hb Hwb); unfold num_add; cbn [add_step]; finish_good.
Qed.

Lemma sub_good : forall a b r, num_is_exact a = true -> num_is_exact b = true ->
  num_wf a = true -> num_wf b = true -> num_sub a b = Ok r -> good r.
Proof.
  intros a b r Ha Hb Hwa Hwb. destruct (exact_wf_view a Ha Hwa), (exact_wf_view b Hb Hwb); unfold num_sub; cbn [sub_step num_rsub]; finish_good.
Qed.

Lemma mul_good : forall a b r, num_is_exact a = true -> num_is_exact b = true ->
  num_wf a = true -> num_wf b = true -> num_mul a b = Ok r -> good r.
Proof.
  intros a b r Ha Hb Hwa Hwb. destruct (exact_wf_view a Ha Hwa), (exact_wf_view b Hb Hwb); unfold num_mul; cbn [mul_step]; finish_good.
Qed.

Lemma div_good : forall a b r, num_is_exact a = true -> num_is_exact b = true ->
  num_wf a = true -> num_wf b = true -> num_div a b = Ok r -> good r.
Proof.
  intros a b r Ha Hb Hwa Hwb. destruct (exact_wf_view a Ha Hwa), (exact_wf_view b Hb Hwb); unfold num_div; cbn [div_step num_rdiv];
    try discriminate;
    (* the zero test of the divisor *)
    match goal with |- context [if ?t then _ else _] => destruct t end; finish_good.
Qed.

(* a good number times an exact one: NaN absorbs, zoo keeps or turns NaN or throws *)
Lemma mul_good_l : forall p u r, good p -> num_is_exact u = true -> num_wf u = true ->
  num_mul p u = Ok r -> good r.
Proof.
  intros p u r [Wp [Ep|[->| ->]]] Eu Wu.
  - now apply mul_good.
  - intros [= <-]. apply good_nan.
  - destruct u; try discriminate Eu; unfold num_mul; cbn [mul_step inf_mul]; try discriminate;
      (destruct (num_is_positive _); [|destruct (num_is_negative _)]); finish_good.
Qed.

Lemma int_powint_good : forall b e r, int_powint b e = Ok r -> good r.
Proof.
  intros b e r. unfold int_powint, int_pow_negint.
  destruct (fits_ulong e); [finish_good|]. destruct (0 <? e); [discriminate|].
  destruct (fits_ulong (- e)); [|discriminate]. destruct (_ =? 0); finish_good.
Qed.

Lemma rat_powrat_good : forall n d e r, qlow (Qmake n d) -> rat_powrat n d e = Ok r -> good r.
Proof.
  intros n d e r Hl. unfold rat_powrat.
  destruct (negb (fits_ulong _)) eqn:Ef; [intros Hr; discriminate Hr|].
  apply Bool.negb_false_iff in Ef. unfold fits_ulong in Ef. apply andb_prop in Ef as [Ef _]. apply Z.leb_le in Ef.
  rewrite !zpow_spec by assumption.
  pose proof (qlow_pow n d _ Ef Hl).
  destruct (negb (e <? 0)); finish_good.
Qed.

Lemma real_pow_good : forall n d e p, qlow (Qmake n d) -> real_pow n d e = Ok p -> good p.
Proof.
  intros n d e p Hl. unfold real_pow. destruct (from_mpq_cases n d) as [[-> E]|E]; rewrite E;
    [apply int_powint_good|now apply rat_powrat_good].
Qed.

Lemma pow_loop_low : forall n r p, qlow (fst (pow_number_loop r p n)) /\ qlow (snd (pow_number_loop r p n)).
Proof.
  induction n as [n IH|n IH|]; intros r p; cbn [pow_number_loop].
  - apply IH.
  - apply IH.
  - unfold cq_mul. cbn [fst snd]. split; auto with nwf.
Qed.

Lemma pow_number_wf : forall x n, num_wf (pow_number x n) = true.
Proof.
  intros x n. unfold pow_number. destruct n as [|p|p]; try (apply wf_cplx_from_mpq; apply qlow_inject).
  destruct (pow_loop_low p (qz 1, qz 0) x). now apply wf_cplx_from_mpq.
Qed.

Lemma unit_num_wf : forall e, num_is_exact (unit_num e) = true /\ num_wf (unit_num e) = true.
Proof. intros e. unfold unit_num. destruct (e mod 4) as [|[[|[]|]|[|[]|]|]|]; split; reflexivity. Qed.

Lemma pow_good : forall a e r, num_is_exact a = true -> num_wf a = true ->
  num_pow a (NInt e) = Ok r -> good r.
Proof.
  intros a e r Ha Hwa.
  destruct a as [za|na da|rn rd imn imd| | | | ]; cbn [num_is_exact] in Ha; try discriminate Ha;
    unfold num_pow; cbn [pow_step].
  - apply int_powint_good.
  - apply rat_powrat_good. now apply wf_rat.
  - pose proof (wf_cplx _ _ _ _ Hwa) as (Hre & Him & Hnz).
    unfold cplx_powcomp. fold (unit_num e) (real_pow imn imd e). destruct (rn =? 0).
    + (* im^e * unit *)
      destruct (unit_num_wf e) as [Hue Huw].
      destruct (real_pow imn imd e) as [p| | |] eqn:Ep; cbn [bind]; try discriminate.
      pose proof (real_pow_good _ _ _ _ Him Ep).
      apply mul_good_l; auto.
    + destruct (0 <? e), (fits_slong e); try discriminate.
      * intros [= <-]. split; [apply pow_number_wf|left; apply cplx_from_mpq_exact].
      * apply div_good; try reflexivity; [apply cplx_from_mpq_exact|apply pow_number_wf].
Qed.

Theorem num_op_normalised : forall a b r,
  num_is_exact a = true -> num_is_exact b = true -> num_wf a = true -> num_wf b = true ->
  (num_add a b = Ok r \/ num_sub a b = Ok r \/ num_mul a b = Ok r \/ num_div a b = Ok r \/
   (exists e, b = NInt e /\ num_pow a b = Ok r)) ->
  num_wf r = true /\ (num_is_exact r = true \/ r = NNaN \/ r = NInf 0).
Proof.
  intros a b r Ha Hb Hwa Hwb [H|[H|[H|[H|(e & -> & H)]]]].
  - exact (add_good a b r Ha Hb Hwa Hwb H).
  - exact (sub_good a b r Ha Hb Hwa Hwb H).
  - exact (mul_good a b r Ha Hb Hwa Hwb H).
  - exact (div_good a b r Ha Hb Hwa Hwb H).
  - exact (pow_good a e r Ha Hwa H).
Qed.

(* the constructors establish the invariant *)
Theorem mk_rat_normalised : forall n d r, mk_rat n d = Ok r -> good r.
Proof. intros n d r. unfold mk_rat. destruct (d =? 0), (n =? 0); finish_good. Qed.

(* Rational / Complex is rejected by the code (Complex::rdiv accepts only an Integer) *)
Theorem num_div_refuted :
  exists a b x y, valQi a = Some x /\ valQi b = Some y /\ ~ qi_is_zero y /\
                  num_wf a = true /\ num_wf b = true /\ num_div a b = ErrExn EXN_NOTIMPL.
Proof.
  exists (NRat 1 2), (NCplx 1 1 2 1), (Qmake 1 2, 0%Q), (Qmake 1 1, Qmake 2 1).
  repeat split; try reflexivity. intros [H _]. discriminate H.
Qed.
