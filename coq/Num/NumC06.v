(* C06: the double dispatch over all 7 x 7 pairs of kinds: commutativity, NaN absorption,
   infinity rules, floats never turn exact. *)
From SE Require Import Num.NumModel Num.NumQ Num.NumFloat Num.NumC05U.
From Coq Require Import QArith Lia ZArith.
Local Open Scope Z_scope.

(* Leibniz commutativity of the mpq operations *)
Lemma Qplus_comm_eq : forall a b : Q, Qplus a b = Qplus b a.
Proof. intros [n d] [n' d']. unfold Qplus. cbn [Qnum Qden]. f_equal; [ring|apply Pos.mul_comm]. Qed.
Lemma Qmult_comm_eq : forall a b : Q, Qmult a b = Qmult b a.
Proof. intros [n d] [n' d']. unfold Qmult. cbn [Qnum Qden]. f_equal; [ring|apply Pos.mul_comm]. Qed.
Lemma qadd_comm : forall a b, qadd a b = qadd b a.
Proof. intros. unfold qadd. now rewrite Qplus_comm_eq. Qed.
Lemma qmul_comm : forall a b, qmul a b = qmul b a.
Proof. intros. unfold qmul. now rewrite Qmult_comm_eq. Qed.

Lemma cd_add_cc_comm : forall a b, cd_add_cc a b = cd_add_cc b a.
Proof. intros [a1 a2] [b1 b2]. unfold cd_add_cc. cbn [fst snd]. now rewrite (fadd_comm a1), (fadd_comm a2). Qed.
Lemma cd_mul_cc_comm : forall a b, cd_mul_cc a b = cd_mul_cc b a.
Proof.
  intros [a1 a2] [b1 b2]. unfold cd_mul_cc. cbn [fst snd].
  rewrite (fmul_comm b1 a1), (fmul_comm b2 a2), (fmul_comm b1 a2), (fmul_comm b2 a1).
  rewrite (fadd_comm (fmul a2 b1)). reflexivity.
Qed.

Theorem addnum_comm : forall a b, num_add a b = num_add b a.
Proof.
  intros a b.
  destruct a as [za|na da|rna rda ina ida|xa|ra ia|da| ], b as [zb|nb db|rnb rdb inb idb|xb|rb ib|db| ];
    unfold num_add; cbn [add_step inf_add]; try reflexivity.
  - now rewrite Z.add_comm.
  - now rewrite qadd_comm.
  - now rewrite (qadd_comm (Qmake rna rda)), (qadd_comm (Qmake ina ida)).
  - now rewrite fadd_comm.
  - now rewrite cd_add_cc_comm.
  - destruct (Z.eqb_spec db da) as [->|Hne].
    + rewrite Z.eqb_refl. reflexivity.
    + assert (E : (da =? db) = false) by (apply Z.eqb_neq; congruence). rewrite E. reflexivity.
Qed.

Theorem mulnum_comm : forall a b, num_mul a b = num_mul b a.
Proof.
  intros a b.
  destruct a as [za|na da|rna rda ina ida|xa|ra ia|da| ], b as [zb|nb db|rnb rdb inb idb|xb|rb ib|db| ];
    unfold num_mul; cbn [mul_step inf_mul num_is_positive num_is_negative]; try reflexivity.
  - now rewrite Z.mul_comm.
  - now rewrite qmul_comm.
  - rewrite (qmul_comm (Qmake rnb rdb) (Qmake rna rda)), (qmul_comm (Qmake inb idb) (Qmake ina ida)).
    rewrite (qmul_comm (Qmake rnb rdb) (Qmake ina ida)), (qmul_comm (Qmake inb idb) (Qmake rna rda)).
    rewrite (qadd_comm (qmul (Qmake ina ida) (Qmake rnb rdb))). reflexivity.
  - now rewrite fmul_comm.
  - now rewrite cd_mul_cc_comm.
  - now rewrite Z.mul_comm.
Qed.

Lemma mul_nan_r : forall a, num_mul a NNaN = Ok NNaN.
Proof. intros [ | | | | | | ]; reflexivity. Qed.
Lemma mul_neg1_ok : forall b, exists c, num_mul b (NInt (-1)) = Ok c.
Proof.
  intros [z|n d|rn rd imn imd|x|re im|d| ]; unfold num_mul; cbn [mul_step inf_mul num_is_positive num_is_negative];
    eexists; reflexivity.
Qed.

Theorem nan_absorbs : forall a b,
  (a = NNaN \/ b = NNaN) ->
  num_add a b = Ok NNaN /\ num_sub a b = Ok NNaN /\ num_mul a b = Ok NNaN /\
  num_div a b = Ok NNaN /\ num_pow a b = Ok NNaN.
Proof.
  intros a b [-> | ->].
  - (* NaN op b *)
    repeat split; try reflexivity.
    unfold num_sub. cbn [sub_step]. unfold default_sub.
    destruct b as [z|n d|rn rd imn imd|x|re im|d| ]; reflexivity.
  - destruct a as [z|n d|rn rd imn imd|x|re im|d| ]; repeat split; reflexivity.
Qed.

Definition is_dir (d : Z) : Prop := d = 1 \/ d = -1 \/ d = 0.

Theorem inf_add_rule : forall d d',
  num_add (NInf d) (NInf d') = Ok (if (d =? d') && negb (d =? 0) then NInf d else NNaN).
Proof.
  intros d d'. unfold num_add. cbn [add_step inf_add]. rewrite (Z.eqb_sym d' d).
  destruct (d =? d'), (d =? 0); reflexivity.
Qed.

Theorem inf_plus_finite : forall d x,
  is_inf x = false -> x <> NNaN -> num_add (NInf d) x = Ok (NInf d) /\ num_add x (NInf d) = Ok (NInf d).
Proof.
  intros d x Hi Hn. destruct x as [z|n d0|rn rd imn imd|b|re im|d0| ]; try discriminate Hi; try contradiction; split; reflexivity.
Qed.

Theorem zero_times_inf : forall d x, num_is_zero x = true ->
  num_mul (NInf d) x = Ok NNaN /\ num_mul x (NInf d) = Ok NNaN.
Proof.
  intros d x Hz. rewrite (mulnum_comm x). assert (H : num_mul (NInf d) x = Ok NNaN); [|split; exact H].
  destruct x as [z|n d0|rn rd imn imd|b|re im|d0| ]; cbn [num_is_zero] in Hz; try discriminate Hz;
    unfold num_mul; cbn [mul_step inf_mul num_is_positive num_is_negative].
  - apply Z.eqb_eq in Hz. subst z. reflexivity.
  - apply Z.eqb_eq in Hz. subst n. reflexivity.
  - unfold feq in Hz. unfold flt. rewrite BinarySingleNaN.Bcompare_swap.
    destruct (BinarySingleNaN.Bcompare (of_bits b) fzero) as [[]|]; try discriminate Hz. reflexivity.
  - reflexivity.
Qed.

Theorem inf_sign_rule : forall d x, is_inf x = false -> is_exact_cplx x = false ->
  (num_is_positive x = true -> num_mul (NInf d) x = Ok (NInf d) /\ num_mul x (NInf d) = Ok (NInf d) /\
                               num_div (NInf d) x = Ok (NInf d)) /\
  (num_is_negative x = true -> num_mul (NInf d) x = Ok (NInf (d * -1)) /\ num_mul x (NInf d) = Ok (NInf (d * -1))).
Proof.
  intros d x Hi Hc. split; intros Hs.
  - rewrite (mulnum_comm x).
    destruct x as [z|n d0|rn rd imn imd|b|re im|d0| ]; try discriminate Hi; try discriminate Hc; try discriminate Hs;
      unfold num_mul, num_div; cbn [mul_step div_step inf_mul inf_div]; rewrite Hs; repeat split; reflexivity.
  - rewrite (mulnum_comm x).
    assert (Hp : num_is_positive x = false).
    { destruct x as [z|n d0|rn rd imn imd|b|re im|d0| ]; cbn [num_is_positive num_is_negative] in *; try discriminate Hs;
        try (apply Z.ltb_lt in Hs; apply Z.ltb_ge; lia).
      unfold flt in *. rewrite BinarySingleNaN.Bcompare_swap.
      destruct (BinarySingleNaN.Bcompare (of_bits b) fzero) as [[]|]; try discriminate Hs; reflexivity. }
    destruct x as [z|n d0|rn rd imn imd|b|re im|d0| ]; try discriminate Hi; try discriminate Hc; try discriminate Hs;
      unfold num_mul; cbn [mul_step inf_mul]; rewrite Hp, Hs; repeat split; reflexivity.
Qed.

Theorem inf_times_inf : forall d d', num_mul (NInf d) (NInf d') = Ok (NInf (d * d')).
Proof. reflexivity. Qed.

Theorem inf_div_inf : forall d d', num_div (NInf d) (NInf d') = Ok NNaN.
Proof. reflexivity. Qed.

(* zoo times a complex number: expected zoo; the code throws (exact Complex) or answers NaN (ComplexDouble) *)
Theorem inf_rules_refuted :
  num_mul (NCplx 1 1 2 1) (NInf 0) = ErrExn EXN_NOTIMPL /\
  num_mul (NInf 0) (NCDbl 4607182418800017408 4611686018427387904) = Ok NNaN.
Proof. split; vm_compute; reflexivity. Qed.

(* floats never turn exact *)
Definition finite_kind (a : number) : bool :=
  match a with NInf _ | NNaN => false | _ => true end.

Lemma bind_float : forall (r : res cd) n, bind r (fun c => Ok (mkCD c)) = Ok n -> is_float n = true.
Proof. intros [c| | |] n H; cbn in H; try discriminate H. injection H as <-. reflexivity. Qed.

Theorem float_never_exact_guarded : forall a b r,
  is_float a || is_float b = true -> finite_kind a = true -> finite_kind b = true ->
  guard_dbl_times_int0 a b = false ->
  (num_add a b = Ok r \/ num_sub a b = Ok r \/ num_mul a b = Ok r \/ num_div a b = Ok r) ->
  is_float r = true.
Proof.
  intros a b r Hf Ha Hb Hg H.
  destruct a as [za|na da|rna rda ina ida|xa|ra ia|da| ], b as [zb|nb db|rnb rdb inb idb|xb|rb ib|db| ];
    try discriminate Hf; try discriminate Ha; try discriminate Hb;
    destruct H as [H|[H|[H|H]]];
    unfold num_add, num_sub, num_mul, num_div in H;
    cbn [add_step sub_step mul_step div_step num_rsub num_rdiv] in H;
    try (injection H as <-; reflexivity); try discriminate H;
    try (apply bind_float in H; exact H).
  all: unfold guard_dbl_times_int0, is_dbl, is_int0 in Hg; cbn [andb orb] in Hg;
    rewrite ?Bool.andb_true_r, ?Bool.orb_false_r, ?Bool.orb_false_l in Hg;
    rewrite Hg in H; injection H as <-; reflexivity.
Qed.

Theorem float_never_exact_refuted :
  exists a b, is_float a = true /\ num_wf a = true /\ num_wf b = true /\ num_mul a b = Ok (NInt 0).
Proof. exists (NDbl 4611686018427387904), (NInt 0). repeat split; vm_compute; reflexivity. Qed.

(* Basic-level add(a,b), mul(a,b) *)
Lemma wf_bits : forall x, bits_ok x = true -> to_bits (of_bits x) = x.
Proof. intros x H. unfold bits_ok in H. apply andb_prop in H as [_ H]. now apply N.eqb_eq in H. Qed.

Ltac wf_split H :=
  cbn [num_wf] in H;
  repeat match type of H with (_ && _ = true) => let H1 := fresh "Hw" in apply andb_prop in H as [H H1] end.

(* exact kinds: the object a itself (C05, uniqueness of the normal form); doubles: x * 1.0 = x *)
Lemma num_mul_one_l : forall a, num_wf a = true -> num_mul (NInt 1) a = Ok a.
Proof.
  intros a Hw. destruct (num_is_exact a) eqn:E; [exact (proj2 (mul_one_structural a E Hw))|].
  destruct a as [z|n d|rn rd imn imd|x|re im|d| ]; try discriminate E; try reflexivity;
    unfold num_mul; cbn [mul_step Z.eqb]; fold fone.
  - rewrite fmul_one. unfold mkD. cbn [num_wf] in Hw. now rewrite wf_bits.
  - unfold cd_mul_cs, cd_of_bits, mkCD. cbn [fst snd]. rewrite !fmul_one.
    wf_split Hw. now rewrite !wf_bits.
Qed.

Theorem basic_mul_comm : forall a b, num_wf a = true -> num_wf b = true ->
  basic_mul_num a b = basic_mul_num b a.
Proof.
  intros a b Ha Hb. unfold basic_mul_num. rewrite !num_mul_one_l by assumption. cbn [bind].
  apply mulnum_comm.
Qed.

Lemma zero_nonfloat_wf : forall a, num_is_zero a = true -> is_float a = false -> num_wf a = true -> a = NInt 0.
Proof.
  intros [z|n d|rn rd imn imd|x|re im|d| ] Hz Hf Hw; cbn [num_is_zero is_float] in *; try discriminate.
  - apply Z.eqb_eq in Hz. now subst.
  - exfalso. apply Z.eqb_eq in Hz. subst n. wf_split Hw. unfold q_lowest in Hw.
    rewrite Z.gcd_0_l in Hw. change (Z.abs (Z.pos d)) with (Z.pos d) in Hw.
    apply Z.eqb_eq in Hw. injection Hw as ->. discriminate Hw0.
Qed.

Lemma num_add_zero_r : forall b, num_wf b = true -> is_float b = false -> num_add b (NInt 0) = Ok b.
Proof.
  intros b Hw Hf. destruct (num_is_exact b) eqn:E; [exact (proj1 (add_zero_structural b E Hw))|].
  destruct b; try discriminate E; try discriminate Hf; reflexivity.
Qed.

Theorem basic_add_comm_guarded : forall a b, num_wf a = true -> num_wf b = true ->
  guard_badd_zero_float a b = false ->
  basic_add_num a b = basic_add_num b a.
Proof.
  intros a b Ha Hb Hg. unfold basic_add_num. unfold guard_badd_zero_float in Hg.
  destruct (num_is_zero a) eqn:Za, (num_is_zero b) eqn:Zb; cbn [orb andb] in Hg.
  - reflexivity.
  - apply Bool.orb_false_iff in Hg as [Hfa Hfb].
    rewrite (zero_nonfloat_wf a Za Hfa Ha). rewrite num_add_zero_r by assumption. cbn [bind]. now rewrite Zb.
  - apply Bool.orb_false_iff in Hg as [Hfa Hfb].
    rewrite (zero_nonfloat_wf b Zb Hfb Hb). rewrite num_add_zero_r by assumption. cbn [bind]. now rewrite Za.
  - now rewrite addnum_comm.
Qed.

Theorem basic_add_comm_refuted :
  exists a b, num_wf a = true /\ num_wf b = true /\
              basic_add_num a b = Ok (NDbl 4607182418800017408) /\ basic_add_num b a = Ok (NInt 1).
Proof. exists (NInt 1), (NDbl 0). repeat split; vm_compute; reflexivity. Qed.
