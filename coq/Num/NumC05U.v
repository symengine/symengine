(* C05: the normal form of exact numbers is UNIQUE -- two normalised exact numbers with the same
   value in Q(i) are the same object (same class, same numerator/denominator).  With
   num_*_correct and num_op_normalised this makes every structural identity of the results a
   consequence of the corresponding identity in Q(i) (e.g. add a b = add b a as representations). *)
From SE Require Import Num.NumModel Num.NumSpec Num.NumQ Num.NumQi Num.NumC05.
From Coq Require Import QArith Qreduction Lia ZArith Bool Setoid Morphisms.
Local Open Scope Z_scope.

(* Integer, Rational (lowest terms, d > 1) and Complex (im <> 0) exclude each other *)
Lemma wf_rat_not_int : forall n d z, num_wf (NRat n d) = true -> ~ (Qmake n d == inject_Z z)%Q.
Proof.
  intros n d z W E. pose proof (qlow_eq _ _ (wf_rat _ _ W) (qlow_inject z) E) as [= _ ->].
  cbn [num_wf] in W. now rewrite andb_false_r in W.
Qed.

Lemma wf_cplx_not_real : forall rn rd imn imd,
  num_wf (NCplx rn rd imn imd) = true -> ~ (Qmake imn imd == 0)%Q.
Proof.
  intros rn rd imn imd W E. destruct (wf_cplx _ _ _ _ W) as (_ & _ & N).
  exact (N (proj2 (q_num_zero (Qmake imn imd)) E)).
Qed.

(* ... and within a class the fields are determined *)
Theorem exact_normal_form_unique : forall a b x y,
  num_wf a = true -> num_wf b = true ->
  valQi a = Some x -> valQi b = Some y -> qi_eq x y -> a = b.
Proof.
  intros a b x y Ha Hb Hx Hy [E1 E2].
  destruct (valQi_view a x Hx), (valQi_view b y Hy); cbn [fst snd] in E1, E2;
    try (exfalso; eapply wf_cplx_not_real; [eassumption | first [exact E2 | symmetry; exact E2]]);
    try (exfalso; eapply wf_rat_not_int; [eassumption | first [exact E1 | symmetry; exact E1]]).
  - f_equal. now apply inject_Z_injective.
  - pose proof (qlow_eq _ _ (wf_rat _ _ Ha) (wf_rat _ _ Hb) E1) as [= -> ->]. reflexivity.
  - destruct (wf_cplx _ _ _ _ Ha) as (Ar & Ai & _), (wf_cplx _ _ _ _ Hb) as (Br & Bi & _).
    pose proof (qlow_eq _ _ Ar Br E1) as [= -> ->]. pose proof (qlow_eq _ _ Ai Bi E2) as [= -> ->].
    reflexivity.
Qed.

(* a is THE normalised exact number of value x *)
Definition nf (a : number) (x : qi) : Prop :=
  num_wf a = true /\ exists z, valQi a = Some z /\ qi_eq z x.

#[local] Instance nf_proper a : Proper (qi_eq ==> iff) (nf a).
Proof.
  intros x y E. split; intros [W (z & V & Ez)]; (split; [exact W|exists z; split; [exact V|]]).
  - now rewrite Ez.
  - now rewrite Ez, E.
Qed.

Lemma nf_unique : forall a b x y, nf a x -> nf b y -> qi_eq x y -> a = b.
Proof.
  intros a b x y [Wa (x' & Vx & Ex)] [Wb (y' & Vy & Ey)] E.
  apply (exact_normal_form_unique a b x' y' Wa Wb Vx Vy). now rewrite Ex, Ey.
Qed.

Lemma valQi_exact : forall r z, valQi r = Some z -> num_is_exact r = true.
Proof. intros r z H; destruct r; try discriminate H; reflexivity. Qed.

Lemma exact_nf : forall a, num_is_exact a = true -> num_wf a = true -> exists x, nf a x.
Proof.
  intros a E W. destruct a; try discriminate E; eexists; (split; [exact W|]); eexists; split; reflexivity.
Qed.

(* an operation that is correct and keeps normal forms computes THE normal form of the result *)
Lemma nf_op : forall (op : number -> number -> res number) (f : qi -> qi -> qi),
  Proper (qi_eq ==> qi_eq ==> qi_eq) f ->
  (forall a b x y, valQi a = Some x -> valQi b = Some y -> has_val (op a b) (f x y)) ->
  (forall a b r, num_is_exact a = true -> num_is_exact b = true ->
                 num_wf a = true -> num_wf b = true -> op a b = Ok r -> good r) ->
  forall a b x y, nf a x -> nf b y -> exists r, op a b = Ok r /\ nf r (f x y).
Proof.
  intros op f Hf Hc Hg a b x y [Wa (x' & Vx & Ex)] [Wb (y' & Vy & Ey)].
  destruct (Hc a b x' y' Vx Vy) as (r & z & Hr & Vz & Ez). exists r. split; [exact Hr|]. split.
  - exact (proj1 (Hg a b r (valQi_exact _ _ Vx) (valQi_exact _ _ Vy) Wa Wb Hr)).
  - exists z. split; [exact Vz|]. now rewrite Ez, Ex, Ey.
Qed.

Lemma nf_add : forall a b x y, nf a x -> nf b y -> exists r, num_add a b = Ok r /\ nf r (qi_add x y).
Proof. exact (nf_op num_add qi_add _ num_add_correct add_good). Qed.
Lemma nf_sub : forall a b x y, nf a x -> nf b y -> exists r, num_sub a b = Ok r /\ nf r (qi_sub x y).
Proof. exact (nf_op num_sub qi_sub _ num_sub_correct sub_good). Qed.
Lemma nf_mul : forall a b x y, nf a x -> nf b y -> exists r, num_mul a b = Ok r /\ nf r (qi_mul x y).
Proof. exact (nf_op num_mul qi_mul _ num_mul_correct mul_good). Qed.

Lemma nf_div : forall a b x y, nf a x -> nf b y -> ~ qi_is_zero y -> guard_rat_div_cplx a b = false ->
  exists r, num_div a b = Ok r /\ nf r (qi_div x y).
Proof.
  intros a b x y [Wa (x' & Vx & Ex)] [Wb (y' & Vy & Ey)] Ny Hg.
  destruct (num_div_correct a b x' y' Vx Vy) as (r & z & Hr & Vz & Ez);
    [unfold qi_is_zero; now rewrite Ey|exact Hg|].
  exists r. split; [exact Hr|]. split.
  - exact (proj1 (div_good a b r (valQi_exact _ _ Vx) (valQi_exact _ _ Vy) Wa Wb Hr)).
  - exists z. split; [exact Vz|]. now rewrite Ez, Ex, Ey.
Qed.

(* ring laws of the RESULTS, as representations *)
Lemma qi_add_comm : forall x y, qi_eq (qi_add x y) (qi_add y x).
Proof. exact NumQi.qi_add_comm. Qed.

(* (a + b) + c and a + (b + c) are the SAME object *)
Theorem add_assoc_structural : forall a b c,
  num_is_exact a = true -> num_is_exact b = true -> num_is_exact c = true ->
  num_wf a = true -> num_wf b = true -> num_wf c = true ->
  exists ab bc r, num_add a b = Ok ab /\ num_add b c = Ok bc /\
                  num_add ab c = Ok r /\ num_add a bc = Ok r.
Proof.
  intros a b c Ea Eb Ec Wa Wb Wc.
  destruct (exact_nf a Ea Wa) as [x Na], (exact_nf b Eb Wb) as [y Nb], (exact_nf c Ec Wc) as [w Nc].
  destruct (nf_add _ _ _ _ Na Nb) as (ab & H1 & Nab), (nf_add _ _ _ _ Nb Nc) as (bc & H2 & Nbc).
  destruct (nf_add _ _ _ _ Nab Nc) as (r & H3 & Nr), (nf_add _ _ _ _ Na Nbc) as (s & H4 & Ns).
  exists ab, bc, r. repeat split; try assumption.
  rewrite H4. f_equal. apply (nf_unique _ _ _ _ Ns Nr), qi_add_assoc.
Qed.

Theorem mul_assoc_structural : forall a b c,
  num_is_exact a = true -> num_is_exact b = true -> num_is_exact c = true ->
  num_wf a = true -> num_wf b = true -> num_wf c = true ->
  exists ab bc r, num_mul a b = Ok ab /\ num_mul b c = Ok bc /\
                  num_mul ab c = Ok r /\ num_mul a bc = Ok r.
Proof.
  intros a b c Ea Eb Ec Wa Wb Wc.
  destruct (exact_nf a Ea Wa) as [x Na], (exact_nf b Eb Wb) as [y Nb], (exact_nf c Ec Wc) as [w Nc].
  destruct (nf_mul _ _ _ _ Na Nb) as (ab & H1 & Nab), (nf_mul _ _ _ _ Nb Nc) as (bc & H2 & Nbc).
  destruct (nf_mul _ _ _ _ Nab Nc) as (r & H3 & Nr), (nf_mul _ _ _ _ Na Nbc) as (s & H4 & Ns).
  exists ab, bc, r. repeat split; try assumption.
  rewrite H4. f_equal. apply (nf_unique _ _ _ _ Ns Nr), qi_mul_assoc.
Qed.

(* a * (b + c) and a*b + a*c are the SAME object *)
Theorem mul_add_distr_structural : forall a b c,
  num_is_exact a = true -> num_is_exact b = true -> num_is_exact c = true ->
  num_wf a = true -> num_wf b = true -> num_wf c = true ->
  exists bc ab ac r, num_add b c = Ok bc /\ num_mul a b = Ok ab /\ num_mul a c = Ok ac /\
                     num_mul a bc = Ok r /\ num_add ab ac = Ok r.
Proof.
  intros a b c Ea Eb Ec Wa Wb Wc.
  destruct (exact_nf a Ea Wa) as [x Na], (exact_nf b Eb Wb) as [y Nb], (exact_nf c Ec Wc) as [w Nc].
  destruct (nf_add _ _ _ _ Nb Nc) as (bc & H1 & Nbc).
  destruct (nf_mul _ _ _ _ Na Nb) as (ab & H2 & Nab), (nf_mul _ _ _ _ Na Nc) as (ac & H3 & Nac).
  destruct (nf_mul _ _ _ _ Na Nbc) as (r & H4 & Nr), (nf_add _ _ _ _ Nab Nac) as (s & H5 & Ns).
  exists bc, ab, ac, r. repeat split; try assumption.
  rewrite H5. f_equal. symmetry. apply (nf_unique _ _ _ _ Nr Ns), qi_mul_add_distr_l.
Qed.

(* structural equality (__eq__, hence Eq) decides equality of VALUES on normalised exact numbers *)
Lemma num_eqb_exact_eq : forall a b, num_is_exact a = true -> num_eqb a b = true -> a = b.
Proof.
  intros a b Ea H. destruct a; try discriminate Ea; destruct b; try discriminate H; cbn [num_eqb] in H.
  - apply Z.eqb_eq in H. now subst.
  - apply q_eqb_eq in H. now injection H as -> ->.
  - apply andb_prop in H as [H1 H2]. apply q_eqb_eq in H1. apply q_eqb_eq in H2.
    injection H1 as -> ->. injection H2 as -> ->. reflexivity.
Qed.

Lemma num_eqb_exact_refl : forall a, num_is_exact a = true -> num_eqb a a = true.
Proof.
  intros a Ea. destruct a; try discriminate Ea; cbn [num_eqb].
  - apply Z.eqb_refl.
  - apply q_eqb_refl.
  - now rewrite !q_eqb_refl.
Qed.

Theorem eq_decides_value_exact : forall a b x y,
  num_wf a = true -> num_wf b = true -> valQi a = Some x -> valQi b = Some y ->
  (num_eqb a b = true <-> qi_eq x y).
Proof.
  intros a b x y Wa Wb Hx Hy. split.
  - intros H. apply (num_eqb_exact_eq a b (valQi_exact _ _ Hx)) in H. subst b.
    rewrite Hx in Hy. injection Hy as <-. reflexivity.
  - intros E. rewrite (exact_normal_form_unique a b x y Wa Wb Hx Hy E) in *.
    apply num_eqb_exact_refl. exact (valQi_exact _ _ Hy).
Qed.

Lemma exact_not_NaN : forall a x, valQi a = Some x -> is_a_NaN a = false.
Proof. intros a x H; destruct a; try discriminate H; reflexivity. Qed.

(* the relational constructor Eq on two normalised exact numbers is True exactly when the
   values agree in Q(i), and False otherwise *)
Theorem Eq_decides_value_exact : forall a b x y,
  num_wf a = true -> num_wf b = true -> valQi a = Some x -> valQi b = Some y ->
  (rel_eq a b = Ok (Some true) <-> qi_eq x y) /\
  (rel_eq a b = Ok (Some false) <-> ~ qi_eq x y).
Proof.
  intros a b x y Wa Wb Hx Hy. unfold rel_eq.
  rewrite (exact_not_NaN a x Hx), (exact_not_NaN b y Hy). cbn [orb].
  rewrite <- (eq_decides_value_exact a b x y Wa Wb Hx Hy).
  destruct (num_eqb a b); split; split; intros H; try discriminate H; try reflexivity; congruence.
Qed.

(* identities and inverses, as representations *)
Lemma nf_int : forall z, nf (NInt z) (inject_Z z, 0%Q).
Proof. intros z. split; [reflexivity|]. eexists; split; reflexivity. Qed.

Theorem add_zero_structural : forall a, num_is_exact a = true -> num_wf a = true ->
  num_add a (NInt 0) = Ok a /\ num_add (NInt 0) a = Ok a.
Proof.
  intros a Ea Wa. destruct (exact_nf a Ea Wa) as [x Na].
  destruct (nf_add _ _ _ _ Na (nf_int 0)) as (r & -> & Nr), (nf_add _ _ _ _ (nf_int 0) Na) as (s & -> & Ns).
  split; f_equal; [apply (nf_unique _ _ _ _ Nr Na)|apply (nf_unique _ _ _ _ Ns Na)];
    destruct x; split; cbn; ring.
Qed.

Theorem mul_one_structural : forall a, num_is_exact a = true -> num_wf a = true ->
  num_mul a (NInt 1) = Ok a /\ num_mul (NInt 1) a = Ok a.
Proof.
  intros a Ea Wa. destruct (exact_nf a Ea Wa) as [x Na].
  destruct (nf_mul _ _ _ _ Na (nf_int 1)) as (r & -> & Nr), (nf_mul _ _ _ _ (nf_int 1) Na) as (s & -> & Ns).
  split; f_equal; [apply (nf_unique _ _ _ _ Nr Na), qi_mul_1_r|apply (nf_unique _ _ _ _ Ns Na), qi_mul_1_l].
Qed.

Theorem sub_self_structural : forall a, num_is_exact a = true -> num_wf a = true ->
  num_sub a a = Ok (NInt 0).
Proof.
  intros a Ea Wa. destruct (exact_nf a Ea Wa) as [x Na].
  destruct (nf_sub _ _ _ _ Na Na) as (r & -> & Nr). f_equal.
  apply (nf_unique _ _ _ _ Nr (nf_int 0)). destruct x; split; cbn; ring.
Qed.

(* (a + b) - b is the object a *)
Theorem add_sub_cancel_structural : forall a b,
  num_is_exact a = true -> num_is_exact b = true -> num_wf a = true -> num_wf b = true ->
  exists ab, num_add a b = Ok ab /\ num_sub ab b = Ok a.
Proof.
  intros a b Ea Eb Wa Wb.
  destruct (exact_nf a Ea Wa) as [x Na], (exact_nf b Eb Wb) as [y Nb].
  destruct (nf_add _ _ _ _ Na Nb) as (ab & H & Nab). destruct (nf_sub _ _ _ _ Nab Nb) as (r & H' & Nr).
  exists ab. split; [exact H|]. rewrite H'. f_equal.
  apply (nf_unique _ _ _ _ Nr Na). destruct x, y; split; cbn; ring.
Qed.

(* a / a is Integer 1 for every non-zero normalised exact a *)
Lemma guard_self : forall a, guard_rat_div_cplx a a = false.
Proof. intros a; destruct a; reflexivity. Qed.

Theorem div_self_structural : forall a x, num_wf a = true -> valQi a = Some x -> ~ qi_is_zero x ->
  num_div a a = Ok (NInt 1).
Proof.
  intros a x Wa Hx Nz.
  assert (Na : nf a x) by (split; [exact Wa|exists x; split; [exact Hx|reflexivity]]).
  destruct (nf_div _ _ _ _ Na Na Nz (guard_self a)) as (r & -> & Nr). f_equal.
  apply (nf_unique _ _ _ _ Nr (nf_int 1)).
  destruct x as [x1 x2].
  assert (Hn : ~ (x1 * x1 + x2 * x2 == 0)%Q) by (intros E; now apply Nz, (qi_zero_norm2 (x1, x2))).
  unfold qi_div, qi_norm2. split; cbn [fst snd]; field; exact Hn.
Qed.
