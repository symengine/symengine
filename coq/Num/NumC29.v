(* C29: the relational constructors of logic.cpp on two numbers against the numeric order. *)
From SE Require Import Num.NumModel Num.NumQ Num.NumFloat.
From Coq Require Import QArith Qreduction Lia ZArith.
Local Open Scope Z_scope.

(* exact or symbolic-infinite real numbers: all values, no size bound *)
Definition xreal (a : number) : bool :=
  match a with
  | NInt _ | NRat _ _ => true
  | NInf d => (d =? 1) || (d =? -1)
  | _ => false
  end.

(* the members of xreal with their values: Integer and Rational (finite), +oo, -oo *)
Inductive fin_view : number -> Q -> Prop :=
| FinInt z : fin_view (NInt z) (inject_Z z)
| FinRat n d : fin_view (NRat n d) (Qmake n d).

Inductive xreal_view : number -> ext -> Prop :=
| XFin a p : fin_view a p -> xreal_view a (Fin p)
| XPInf : xreal_view (NInf 1) PInf
| XMInf : xreal_view (NInf (-1)) MInf.

Lemma xreal_view_of : forall a x, xreal a = true -> val a = Some x -> xreal_view a x.
Proof.
  intros [z|n d| | | |d| ] x Ha Hx; try discriminate Ha; cbn [val] in Hx.
  - injection Hx as <-. repeat constructor.
  - injection Hx as <-. repeat constructor.
  - apply Bool.orb_prop in Ha as [Ha|Ha]; apply Z.eqb_eq in Ha; subst d; injection Hx as <-; constructor.
Qed.

(* the order of Q, as the model's ext_ltb / ext_eqb compute it, through a difference *)
Lemma ltb_sub : forall p q : Q, ext_ltb (Fin (p - q)) (Fin 0) = ext_ltb (Fin p) (Fin q).
Proof.
  intros p q. cbn [ext_ltb].
  destruct (Qlt_le_dec (p - q) 0) as [H|H], (Qlt_le_dec p q) as [H'|H']; try reflexivity; exfalso.
  - apply (Qplus_lt_l _ _ q) in H. ring_simplify in H. apply (Qlt_irrefl q). eapply Qle_lt_trans; eassumption.
  - apply (Qplus_lt_l _ _ (-q)) in H'. apply (Qlt_irrefl 0%Q). eapply Qle_lt_trans; [exact H|].
    setoid_replace (q + - q)%Q with 0%Q in H' by ring. exact H'.
Qed.

Lemma eqb_sub : forall p q : Q, ext_eqb (Fin (p - q)) (Fin 0) = ext_eqb (Fin p) (Fin q).
Proof.
  intros p q. cbn [ext_eqb]. apply Bool.eq_true_iff_eq. rewrite !Qeq_bool_iff. split; intros H.
  - setoid_replace p with (p - q + q)%Q by ring. rewrite H. ring.
  - rewrite H. ring.
Qed.

Lemma ext_ltb_eq : forall p q : Q, (p == q)%Q -> ext_ltb (Fin p) (Fin q) = false.
Proof.
  intros p q H. cbn [ext_ltb]. destruct (Qlt_le_dec p q) as [H'|H']; [|reflexivity].
  rewrite H in H'. now apply Qlt_irrefl in H'.
Qed.

Lemma ext_eqb_eq : forall p q : Q, (p == q)%Q -> ext_eqb (Fin p) (Fin q) = true.
Proof. intros p q H. now apply Qeq_bool_iff. Qed.

(* the sign tests of a number with a value q *)
Lemma qnum_neg : forall q, (Qnum q <? 0) = ext_ltb (Fin q) (Fin 0).
Proof.
  intros [n d]. cbn [ext_ltb Qnum]. destruct (Qlt_le_dec (Qmake n d) 0) as [H|H]; unfold Qlt, Qle in H; cbn in H.
  - apply Z.ltb_lt. lia.
  - apply Z.ltb_ge. lia.
Qed.

Lemma qnum_zero : forall q, (Qnum q =? 0) = ext_eqb (Fin q) (Fin 0).
Proof.
  intros q. cbn [ext_eqb]. apply Bool.eq_true_iff_eq. now rewrite Z.eqb_eq, Qeq_bool_iff, q_num_zero.
Qed.

Lemma neg_from_mpq : forall q, num_is_negative (from_mpq q) = (Qnum q <? 0).
Proof. intros [n d]. unfold from_mpq. cbn [Qnum Qden]. destruct (d =? 1)%positive; reflexivity. Qed.
Lemma zero_from_mpq : forall q, num_is_zero (from_mpq q) = (Qnum q =? 0).
Proof. intros [n d]. unfold from_mpq. cbn [Qnum Qden]. destruct (d =? 1)%positive; reflexivity. Qed.

(* the order of ext respects Qeq *)
Definition ext_equiv (x y : ext) : Prop :=
  match x, y with MInf, MInf => True | PInf, PInf => True | Fin p, Fin q => (p == q)%Q | _, _ => False end.

Lemma ext_ltb_proper : forall x x' y y', ext_equiv x x' -> ext_equiv y y' -> ext_ltb x y = ext_ltb x' y'.
Proof.
  intros [|p|] [|p'|] [|q|] [|q'|] Hx Hy; cbn in *; try contradiction; try reflexivity.
  destruct (Qlt_le_dec p q) as [H|H], (Qlt_le_dec p' q') as [H'|H']; try reflexivity; exfalso.
  - rewrite Hx, Hy in H. apply (Qlt_irrefl p'). eapply Qlt_le_trans; eassumption.
  - rewrite <- Hx, <- Hy in H'. apply (Qlt_irrefl p). eapply Qlt_le_trans; eassumption.
Qed.
Lemma ext_eqb_proper : forall x x' y y', ext_equiv x x' -> ext_equiv y y' -> ext_eqb x y = ext_eqb x' y'.
Proof.
  intros [|p|] [|p'|] [|q|] [|q'|] Hx Hy; cbn in *; try contradiction; try reflexivity.
  apply Bool.eq_true_iff_eq. now rewrite !Qeq_bool_iff, Hx, Hy.
Qed.
Lemma ext_equiv_refl : forall x, ext_equiv x x.
Proof. intros [|p|]; cbn; auto. reflexivity. Qed.

(* on finite exact reals the difference num_sub computes has the sign of p - q *)
Lemma sub_sign : forall a b p q, fin_view a p -> fin_view b q ->
  exists s, num_sub a b = Ok s /\
            num_is_negative s = ext_ltb (Fin p) (Fin q) /\ num_is_zero s = ext_eqb (Fin p) (Fin q).
Proof.
  intros a b p q Fa Fb.
  assert (H : forall p q, num_is_negative (from_mpq (qsub p q)) = ext_ltb (Fin p) (Fin q) /\
                          num_is_zero (from_mpq (qsub p q)) = ext_eqb (Fin p) (Fin q)).
  { intros u v. rewrite neg_from_mpq, zero_from_mpq, qnum_neg, qnum_zero, <- (ltb_sub u v), <- (eqb_sub u v).
    split; [apply ext_ltb_proper|apply ext_eqb_proper]; cbn; try reflexivity; apply qsub_eq. }
  destruct Fa as [za|na da], Fb as [zb|nb db]; unfold num_sub; cbn [sub_step num_rsub];
    eexists; (split; [reflexivity|]); try apply H.
  cbn [num_is_negative num_is_zero].
  rewrite <- (ltb_sub (inject_Z za)), <- (eqb_sub (inject_Z za)), <- qnum_neg, <- qnum_zero.
  unfold Qminus, Qplus, Qopp, inject_Z. cbn [Qnum Qden]. rewrite !Z.mul_1_r. split; reflexivity.
Qed.

(* Lt and Le (Le after commit 117ad73: true when lhs - rhs is negative or zero) *)
Lemma fin_eqb : forall a b p q, fin_view a p -> fin_view b q -> num_eqb a b = true -> (p == q)%Q.
Proof.
  intros a b p q [za|na da] [zb|nb db] E; try discriminate E; cbn [num_eqb] in E.
  - apply Z.eqb_eq in E. now subst.
  - apply q_eqb_eq in E. now rewrite E.
Qed.

(* finite operands: eq() first, then the sign of the difference; both give the order of the values *)
Lemma rel_fin : forall a b p q, fin_view a p -> fin_view b q ->
  rel_lt a b = Ok (Some (ext_ltb (Fin p) (Fin q))) /\ rel_le a b = Ok (Some (ext_leb (Fin p) (Fin q))).
Proof.
  intros a b p q Fa Fb. destruct (sub_sign a b p q Fa Fb) as (s & Hs & Hn & Hz).
  pose proof (fin_eqb a b p q Fa Fb) as He.
  unfold rel_lt, rel_le, ext_leb. rewrite Hs. cbn [bind]. rewrite Hn, Hz.
  destruct (num_eqb a b); [specialize (He eq_refl)|];
    destruct Fa, Fb; cbn [is_a_Complex is_a_NaN num_eqb orb]; try (split; reflexivity).
  all: now rewrite (ext_ltb_eq _ _ He), (ext_eqb_eq _ _ He).
Qed.

Lemma inf_add_from_mpq : forall d q, num_add (NInf d) (from_mpq q) = Ok (NInf d).
Proof. intros d q. unfold from_mpq. destruct (_ =? _)%positive; reflexivity. Qed.

Lemma rel_inf_rat : forall d n dd, (d =? 0) = false ->
  rel_lt (NInf d) (NRat n dd) = Ok (Some (d <? 0)) /\ rel_le (NInf d) (NRat n dd) = Ok (Some ((d <? 0) || false)).
Proof.
  intros d n dd Hd. unfold rel_lt, rel_le. cbn [is_a_Complex is_a_NaN num_eqb orb]. rewrite Hd.
  unfold num_sub. cbn [sub_step]. unfold default_sub, num_mul. cbn [mul_step bind].
  rewrite inf_add_from_mpq. split; reflexivity.
Qed.

(* the rows with a symbolic infinity are computed *)
Theorem Lt_Le_correct_exact : forall a b x y,
  xreal a = true -> xreal b = true -> val a = Some x -> val b = Some y ->
  rel_lt a b = Ok (Some (ext_ltb x y)) /\ rel_le a b = Ok (Some (ext_leb x y)).
Proof.
  intros a b x y Ha Hb Hx Hy.
  destruct (xreal_view_of a x Ha Hx) as [a p Fa| | ], (xreal_view_of b y Hb Hy) as [b q Fb| | ];
    try (split; reflexivity).
  - now apply rel_fin.
  - destruct Fa; split; reflexivity.
  - destruct Fa; split; reflexivity.
  - destruct Fb; [split; reflexivity|now apply rel_inf_rat].
  - destruct Fb; [split; reflexivity|now apply rel_inf_rat].
Qed.

Theorem Lt_correct_exact : forall a b x y,
  xreal a = true -> xreal b = true -> val a = Some x -> val b = Some y ->
  rel_lt a b = Ok (Some (ext_ltb x y)).
Proof. intros a b x y Ha Hb Hx Hy. exact (proj1 (Lt_Le_correct_exact a b x y Ha Hb Hx Hy)). Qed.

Theorem Le_correct_exact : forall a b x y,
  xreal a = true -> xreal b = true -> val a = Some x -> val b = Some y ->
  rel_le a b = Ok (Some (ext_leb x y)).
Proof. intros a b x y Ha Hb Hx Hy. exact (proj2 (Lt_Le_correct_exact a b x y Ha Hb Hx Hy)). Qed.

(* Le(a,b) = not Lt(b,a) *)
Lemma ext_leb_negb_ltb : forall x y, ext_leb x y = negb (ext_ltb y x).
Proof.
  intros [|p|] [|q|]; unfold ext_leb; cbn; try reflexivity.
  destruct (Qlt_le_dec p q) as [H|H], (Qlt_le_dec q p) as [H'|H']; cbn.
  - exfalso. apply (Qlt_irrefl p). eapply Qlt_trans; eassumption.
  - reflexivity.
  - apply Bool.not_true_is_false. intros E. apply Qeq_bool_iff in E. rewrite E in H'. now apply Qlt_irrefl in H'.
  - apply Qeq_bool_iff. now apply Qle_antisym.
Qed.

Theorem Le_not_Lt_exact : forall a b x y,
  xreal a = true -> xreal b = true -> val a = Some x -> val b = Some y ->
  exists t, rel_lt b a = Ok (Some t) /\ rel_le a b = Ok (Some (negb t)).
Proof.
  intros a b x y Ha Hb Hx Hy. exists (ext_ltb y x). split.
  - now apply Lt_correct_exact.
  - rewrite <- ext_leb_negb_ltb. now apply Le_correct_exact.
Qed.

(* Ge / Gt are Le / Lt with the operands exchanged *)
Theorem Ge_Le : forall a b, rel_ge a b = rel_le b a.
Proof. reflexivity. Qed.
Theorem Gt_Lt : forall a b, rel_gt a b = rel_lt b a.
Proof. reflexivity. Qed.

(* Eq symmetric, Ne its negation: all numbers of all kinds *)
Lemma feq_sym : forall x y, feq x y = feq y x.
Proof.
  intros x y. unfold feq. rewrite (BinarySingleNaN.Bcompare_swap _ _ x y).
  destruct (BinarySingleNaN.Bcompare x y) as [[]|]; reflexivity.
Qed.
Lemma q_eqb_sym : forall p q, q_eqb p q = q_eqb q p.
Proof. intros. unfold q_eqb. now rewrite Z.eqb_sym, Pos.eqb_sym. Qed.

Lemma num_eqb_sym : forall a b, num_eqb a b = num_eqb b a.
Proof.
  intros a b. destruct a, b; cbn [num_eqb]; try reflexivity.
  - apply Z.eqb_sym.
  - apply q_eqb_sym.
  - now rewrite (q_eqb_sym (Qmake rn rd)), (q_eqb_sym (Qmake imn imd)).
  - apply feq_sym.
  - now rewrite (feq_sym (of_bits re)), (feq_sym (of_bits im)).
  - apply Z.eqb_sym.
Qed.

Theorem Eq_sym : forall a b, rel_eq a b = rel_eq b a.
Proof.
  intros a b. unfold rel_eq. rewrite (num_eqb_sym a b), (Bool.orb_comm (is_a_NaN a)). reflexivity.
Qed.

Theorem Ne_negb_Eq : forall a b, exists t, rel_eq a b = Ok (Some t) /\ rel_ne a b = Ok (Some (negb t)).
Proof.
  intros a b. unfold rel_ne, rel_eq.
  destruct (is_a_NaN a || is_a_NaN b); [exists false; split; reflexivity|].
  destruct (num_eqb a b); [exists true|exists false]; split; reflexivity.
Qed.
