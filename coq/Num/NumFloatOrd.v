(* Order lemmas on binary64 (Flocq, single-NaN format): the sign of the rounded difference
   a - b decides a < b (no underflow to zero, overflow keeps the sign). *)
From SE Require Import Num.NumModel Num.NumFloat.
From Coq Require Import ZArith Reals Lia Lra.
From Flocq Require Import IEEE754.BinarySingleNaN Core Plus_error.
Local Open Scope R_scope.

Notation fexp64 := (SpecFloat.fexp 53 1024).
Notation B2R64 := (BinarySingleNaN.B2R (prec:=53) (emax:=1024)).

#[local] Instance valid_fexp64 : Valid_exp fexp64 := BinarySingleNaN.fexp_correct 53 1024 Hprec64.
#[local] Instance mono_fexp64 : Monotone_exp fexp64 := BinarySingleNaN.fexp_monotone 53 1024.

Lemma fzero_finite : BinarySingleNaN.is_finite fzero = true. Proof. reflexivity. Qed.
Lemma fzero_B2R : B2R64 fzero = 0. Proof. reflexivity. Qed.

Lemma sign_B2R : forall a : f64, BinarySingleNaN.is_finite a = true ->
  (BinarySingleNaN.Bsign a = true -> B2R64 a <= 0) /\ (BinarySingleNaN.Bsign a = false -> 0 <= B2R64 a).
Proof.
  intros [s|s| |s m e H] Hf; try discriminate Hf; cbn.
  - split; intros _; lra.
  - split; intros ->; cbn.
    + apply F2R_le_0. cbn. lia.
    + apply F2R_ge_0. cbn. lia.
Qed.

Lemma fcmp_finite : forall a b : f64,
  BinarySingleNaN.is_finite a = true -> BinarySingleNaN.is_finite b = true ->
  BinarySingleNaN.Bcompare a b = Some (Rcompare (B2R64 a) (B2R64 b)).
Proof. intros a b Ha Hb. now apply BinarySingleNaN.Bcompare_correct. Qed.

Lemma round_neg_iff : forall x y : R,
  generic_format radix2 fexp64 x -> generic_format radix2 fexp64 y ->
  Rcompare (round radix2 fexp64 (round_mode mode_NE) (x - y)) 0 = Rcompare x y.
Proof.
  intros x y Fx Fy.
  assert (Fny : generic_format radix2 fexp64 (- y)) by now apply generic_format_opp.
  destruct (Rcompare_spec x y) as [H|H|H].
  - apply Rcompare_Lt.
    assert (Hle : round radix2 fexp64 (round_mode mode_NE) (x - y) <= 0).
    { rewrite <- (round_0 radix2 fexp64 (round_mode mode_NE)). apply round_le; try lra; try apply valid_rnd_N; try typeclasses eauto. }
    assert (Hne : round radix2 fexp64 (round_mode mode_NE) (x + - y) <> 0).
    { apply round_plus_neq_0; try assumption; try apply valid_rnd_N; try typeclasses eauto. intro E; lra. }
    unfold Rminus in *. lra.
  - subst. unfold Rminus. rewrite Rplus_opp_r, round_0 by apply valid_rnd_N. now apply Rcompare_Eq.
  - apply Rcompare_Gt.
    assert (Hge : 0 <= round radix2 fexp64 (round_mode mode_NE) (x - y)).
    { rewrite <- (round_0 radix2 fexp64 (round_mode mode_NE)). apply round_le; try lra; try apply valid_rnd_N; try typeclasses eauto. }
    assert (Hne : round radix2 fexp64 (round_mode mode_NE) (x + - y) <> 0).
    { apply round_plus_neq_0; try assumption; try apply valid_rnd_N; try typeclasses eauto. intro E; lra. }
    unfold Rminus in *. lra.
Qed.

Lemma Rcompare_0_sign : forall a b : R,
  match Rcompare (a - b) 0 with Lt => true | _ => false end = match Rcompare a b with Lt => true | _ => false end.
Proof.
  intros a b. destruct (Rcompare_spec a b) as [H|H|H].
  - rewrite Rcompare_Lt by lra. reflexivity.
  - rewrite Rcompare_Eq by lra. reflexivity.
  - rewrite Rcompare_Gt by lra. reflexivity.
Qed.

(* the rounded difference of two finite doubles compares with 0 as they compare with each other:
   rounding does not reach 0 from a non-zero difference, and an overflow keeps the sign *)
Lemma fsub_cmp_finite : forall a b : f64,
  BinarySingleNaN.is_finite a = true -> BinarySingleNaN.is_finite b = true ->
  BinarySingleNaN.Bcompare (fsub a b) fzero = BinarySingleNaN.Bcompare a b.
Proof.
  intros a b Fa Fb. rewrite (fcmp_finite a b Fa Fb).
  pose proof (BinarySingleNaN.Bminus_correct 53 1024 _ _ mode_NE a b Fa Fb) as H.
  fold (fsub a b) in H.
  destruct (Rlt_bool (Rabs (round radix2 fexp64 (round_mode mode_NE) (B2R64 a - B2R64 b))) (bpow radix2 1024)) eqn:Hov.
  - destruct H as (H1 & H2 & _).
    rewrite (fcmp_finite (fsub a b) fzero H2 fzero_finite), H1, fzero_B2R.
    now rewrite round_neg_iff by apply BinarySingleNaN.generic_format_B2R.
  - destruct H as (H1 & H2).
    assert (Hne : B2R64 a <> B2R64 b).
    { intros E. rewrite E, Rminus_diag_eq, round_0, Rabs_R0 in Hov by (try apply valid_rnd_N; reflexivity).
      rewrite Rlt_bool_true in Hov by apply bpow_gt_0. discriminate Hov. }
    destruct (sign_B2R a Fa) as [Sa1 Sa2]. destruct (sign_B2R b Fb) as [Sb1 Sb2].
    unfold BinarySingleNaN.binary_overflow in H1. cbn [BinarySingleNaN.overflow_to_inf] in H1.
    destruct (fsub a b) as [s|s| |s m e Hb]; cbn in H1; try discriminate H1.
    injection H1 as ->.
    destruct (BinarySingleNaN.Bsign a) eqn:Sa.
    + (* a <= 0 <= b, a <> b *)
      assert (Sb : BinarySingleNaN.Bsign b = false) by (destruct (BinarySingleNaN.Bsign b); [discriminate H2|reflexivity]).
      specialize (Sa1 eq_refl). specialize (Sb2 Sb). rewrite Rcompare_Lt by lra. reflexivity.
    + assert (Sb : BinarySingleNaN.Bsign b = true) by (destruct (BinarySingleNaN.Bsign b); [reflexivity|discriminate H2]).
      specialize (Sa2 eq_refl). specialize (Sb1 Sb). rewrite Rcompare_Gt by lra. reflexivity.
Qed.

(* all operands: infinities and NaN by the definitions of Bminus / Bcompare *)
Theorem fsub_lt : forall a b : f64, flt (fsub a b) fzero = flt a b.
Proof.
  intros a b. destruct (BinarySingleNaN.is_finite a && BinarySingleNaN.is_finite b) eqn:F.
  - apply andb_prop in F as [Fa Fb]. unfold flt. now rewrite fsub_cmp_finite.
  - destruct a as [sa|sa| |sa ma ea Ha], b as [sb|sb| |sb mb eb Hb]; try discriminate F;
      try reflexivity; destruct sa, sb; reflexivity.
Qed.

Lemma fsub_eq_finite : forall a b : f64,
  BinarySingleNaN.is_finite a = true -> BinarySingleNaN.is_finite b = true ->
  feq (fsub a b) fzero = feq a b.
Proof. intros a b Fa Fb. unfold feq. now rewrite fsub_cmp_finite. Qed.

(* the difference of two unequal doubles is not zero *)
Theorem fsub_nonzero : forall a b : f64, feq a b = false -> feq (fsub a b) fzero = false.
Proof.
  intros a b H. destruct (BinarySingleNaN.is_finite a && BinarySingleNaN.is_finite b) eqn:F.
  - apply andb_prop in F as [Fa Fb]. now rewrite fsub_eq_finite.
  - destruct a as [sa|sa| |sa ma ea Ha], b as [sb|sb| |sb mb eb Hb]; try discriminate F;
      try reflexivity; destruct sa, sb; try reflexivity; discriminate H.
Qed.

Lemma feq_not_flt : forall a b : f64, feq a b = true -> flt a b = false.
Proof. intros a b. unfold feq, flt. destruct (BinarySingleNaN.Bcompare a b) as [[]|]; intros H; try discriminate H; reflexivity. Qed.

(* Le through the difference: not for two infinities of the same sign (their difference is NaN) *)
Lemma fsub_le : forall u v : f64, BinarySingleNaN.is_nan u = false -> BinarySingleNaN.is_nan v = false ->
  (BinarySingleNaN.is_finite u = true \/ BinarySingleNaN.is_finite v = true) ->
  flt (fsub u v) fzero || feq (fsub u v) fzero = flt u v || feq u v.
Proof.
  intros u v Nu Nv Hf. rewrite fsub_lt. destruct (feq u v) eqn:E.
  - rewrite (feq_not_flt u v E). cbn [orb].
    destruct u as [su|su| |su mu eu Hu], v as [sv|sv| |sv mv ev Hv]; try discriminate Nu; try discriminate Nv;
      try (rewrite fsub_eq_finite by reflexivity; exact E);
      unfold feq in E; cbn in E; destruct su, sv; try discriminate E;
      destruct Hf as [Hf|Hf]; discriminate Hf.
  - now rewrite (fsub_nonzero u v E).
Qed.
