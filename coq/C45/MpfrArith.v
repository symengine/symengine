(* C45 -- RealMPFR arithmetic: a dispatch rule of the shape "one MPFR call on the two exact operands
   into a result of the larger precision" (optionally followed by an exact negation) returns the
   correctly rounded result; which (operation, operand kind) pairs of the GENERATED table have
   this shape is computed; the pairs that have not are refuted by witnesses. *)
From Coq Require Import ZArith NArith List Bool Reals Lra Lia.
From Flocq Require Import Core.
From SE Require Import C45.MpfrModel C45.Gen_MpfrRules C45.MpfrRound.
Import ListNotations.
Local Open Scope R_scope.
Arguments dbl_value : simpl never.
Arguments rnd_q : simpl never.
Arguments mp_of_xq : simpl never.
Arguments xq_of_dy : simpl never.

Definition is_self (a : aopd) : bool := match a with OSelf => true | _ => false end.
Definition is_other (a : aopd) : bool := match a with OOther => true | _ => false end.
Definition so (a b : aopd) : bool := is_self a && is_other b.
Definition os (a b : aopd) : bool := is_other a && is_self b.

(* the step computes (self o other) from the two exact operands *)
Definition step_for (o : aop) (s : astep) : bool :=
  match o, s with
  | OAdd, AAdd a b => so a b || os a b
  | OSub, ASub a b => so a b
  | ORsub, ASub a b => os a b
  | OMul, AMul a b => so a b || os a b
  | ODiv, ADiv a b => so a b
  | ORdiv, ADiv a b => os a b
  | OPow, APow a b => so a b
  | ORpow, APow a b => os a b
  | _, _ => false
  end.

Definition is_sub_so (s : astep) : bool := match s with ASub a b => so a b | _ => false end.
Definition is_neg_t (s : astep) : bool := match s with ANeg OT => true | _ => false end.
Definition is_rsub (o : aop) : bool := match o with ORsub => true | _ => false end.

Definition steps_single (o : aop) (l : list astep) : bool :=
  match l with
  | [s] => step_for o s
  | [s1; s2] => is_rsub o && is_sub_so s1 && is_neg_t s2      (* -(self - other), the negation is exact *)
  | _ => false
  end.

(* the precision of the result: the larger operand precision *)
Definition prec_ok (k : akind) (p : apsel) : bool :=
  match k, p with
  | KRealMPFR, PMax => true
  | KRealMPFR, _ => false
  | _, PSelf => true
  | _, _ => false
  end.

Definition rule_single_rounding (o : aop) (k : akind) (r : arule) : bool :=
  match r with
  | ARule _ p steps => prec_ok k p && steps_single o steps
  | ARThrow _ => false
  end.

(* integer exponents the model computes exactly *)
Definition exp_bounded (o : aop) (xs xo : xq) : bool :=
  match o with
  | OPow => match xq_to_Z xo with Some k => Z.leb (Z.abs k) POW_BOUND | None => true end
  | ORpow => match xq_to_Z xs with Some k => Z.leb (Z.abs k) POW_BOUND | None => true end
  | _ => true
  end.

(* the real number a (self o other) denotes *)
Definition is_exact (o : aop) (x y r : R) : Prop :=
  match o with
  | OAdd => r = x + y
  | OSub => r = x - y
  | ORsub => r = y - x
  | OMul => r = x * y
  | ODiv => y <> 0 /\ r = x / y
  | ORdiv => x <> 0 /\ r = y / x
  | OPow => exists k, y = IZR k /\ r = powerRZ x k
  | ORpow => exists k, x = IZR k /\ r = powerRZ y k
  end.

Lemma exact_op_correct : forall o x y q,
  exact_op o x y = Some q -> is_exact o (xq2R x) (xq2R y) (xq2R q).
Proof.
  intros o x y q H. destruct o; simpl in H; unfold is_exact.
  - inversion H; subst. apply xq_add_correct.
  - inversion H; subst. apply xq_sub_correct.
  - inversion H; subst. apply xq_sub_correct.
  - inversion H; subst. apply xq_mul_correct.
  - apply xq_div_correct in H. tauto.
  - apply xq_div_correct in H. tauto.
  - destruct (xq_to_Z y) as [k | ] eqn:Hk; [ | discriminate ].
    destruct (Z.leb (Z.abs k) POW_BOUND); [ | discriminate ].
    exists k. split; [ apply xq_to_Z_correct; auto | apply xq_pow_correct; auto ].
  - destruct (xq_to_Z x) as [k | ] eqn:Hk; [ | discriminate ].
    destruct (Z.leb (Z.abs k) POW_BOUND); [ | discriminate ].
    exists k. split; [ apply xq_to_Z_correct; auto | apply xq_pow_correct; auto ].
Qed.

Lemma rndR_idem : forall p x, rndR p (rndR p x) = rndR p x.
Proof.
  intros p x. unfold rndR. apply round_generic; auto with typeclass_instances.
  apply generic_format_round; auto with typeclass_instances.
Qed.

Lemma rndR_opp : forall p x, rndR p (- x) = - rndR p x.
Proof. intros. unfold rndR. apply round_NE_opp. Qed.

Lemma rndR_opp_rnd : forall p x, rndR p (- rndR p x) = - rndR p x.
Proof. intros. rewrite rndR_opp, rndR_idem. reflexivity. Qed.

Lemma xq_of_rnd_correct : forall p q, xq2R (xq_of_rnd p q) = rndR p (xq2R q).
Proof.
  intros p q. unfold xq_of_rnd.
  pose proof (rnd_q_correct p (fst q) (snd q)) as H.
  destruct (rnd_q p (fst q) (snd q)) as [m e]. simpl in H.
  rewrite xq_of_dy_correct. exact H.
Qed.

Lemma step_for_exact : forall o s xs xo q,
  step_for o s = true -> exp_bounded o xs xo = true -> exact_op o xs xo = Some q ->
  exists q', astep_exact xs xo None s = Some q' /\ xq2R q' = xq2R q.
Proof.
  intros o s xs xo q Hs Hb He.
  destruct o; destruct s as [a b | a b | a b | a b | a b | a k | a | a]; try discriminate Hs;
    destruct a; try discriminate Hs; destruct b; try discriminate Hs;
    cbn [astep_exact aopd_val]; cbn [exact_op] in He; cbn [exp_bounded] in Hb.
  (* add *)
  - eexists; split; [ reflexivity | ]. inversion He; subst. reflexivity.
  - eexists; split; [ reflexivity | ]. inversion He; subst. rewrite !xq_add_correct. ring.
  (* sub, rsub *)
  - eexists; split; [ reflexivity | ]. inversion He; subst. reflexivity.
  - eexists; split; [ reflexivity | ]. inversion He; subst. reflexivity.
  (* mul *)
  - eexists; split; [ reflexivity | ]. inversion He; subst. reflexivity.
  - eexists; split; [ reflexivity | ]. inversion He; subst. rewrite !xq_mul_correct. ring.
  (* div, rdiv *)
  - exists q. split; [ exact He | reflexivity ].
  - exists q. split; [ exact He | reflexivity ].
  (* pow, rpow *)
  - destruct (xq_to_Z xo) as [k | ]; [ | discriminate ]. rewrite Hb in He |- *. exists q. split; [ exact He | reflexivity ].
  - destruct (xq_to_Z xs) as [k | ]; [ | discriminate ]. rewrite Hb in He |- *. exists q. split; [ exact He | reflexivity ].
Qed.

Lemma sel_prec_ok : forall k psel ps other xo,
  prec_ok k psel = true -> opd_kind other = k -> opd_val other = Some xo ->
  sel_prec psel ps other = Some (result_prec ps other).
Proof.
  intros k psel ps other xo Hp Hk Hv. subst k.
  destruct other; cbn [opd_val] in Hv; try discriminate Hv; destruct psel; cbn [prec_ok opd_kind] in Hp; try discriminate Hp; reflexivity.
Qed.

Lemma steps_single_inv : forall o steps, steps_single o steps = true ->
  (exists s, steps = [s] /\ step_for o s = true) \/
  (o = ORsub /\ steps = [ASub OSelf OOther; ANeg OT]).
Proof.
  intros o steps H. destruct steps as [ | s1 [ | s2 [ | ] ] ]; try discriminate.
  - left. exists s1. auto.
  - right. simpl in H. apply andb_prop in H. destruct H as [H H2]. apply andb_prop in H. destruct H as [H0 H1].
    destruct o; try discriminate.
    destruct s1 as [a b | a b | a b | a b | a b | a k | a | a]; try discriminate.
    destruct a; try discriminate; destruct b; try discriminate.
    destruct s2 as [a b | a b | a b | a b | a b | a k | a | a]; try discriminate.
    destruct a; try discriminate. auto.
Qed.

Theorem arith_exec_correctly_rounded :
  forall o k g psel steps ps vs other xs xo q,
    rule_single_rounding o k (ARule g psel steps) = true ->
    opd_kind other = k ->
    xq_of_mpv vs = Some xs -> opd_val other = Some xo ->
    guard_fires g xs xo = None ->
    exp_bounded o xs xo = true ->
    exact_op o xs xo = Some q ->
    exists v, arith_exec (ARule g psel steps) ps vs other = AVal (result_prec ps other) v
              /\ mpv2R v = rndR (result_prec ps other) (xq2R q).
Proof.
  intros o k g psel steps ps vs other xs xo q Hr Hk Hs Ho Hg Hb He.
  unfold rule_single_rounding in Hr. apply andb_prop in Hr. destruct Hr as [Hp Hst].
  unfold arith_exec. rewrite Hs, Ho, Hg.
  rewrite (sel_prec_ok k psel ps other xo Hp Hk Ho).
  set (pt := result_prec ps other).
  destruct (steps_single_inv o steps Hst) as [[s [-> Hsf]] | [-> ->]].
  - destruct (step_for_exact o s xs xo q Hsf Hb He) as [q' [Hq' Hv]].
    cbn [asteps]. rewrite Hq'.
    eexists. split; [ reflexivity | ].
    rewrite mp_of_xq_correct, xq_of_rnd_correct, rndR_idem, Hv. reflexivity.
  - cbn [asteps astep_exact aopd_val].
    eexists. split; [ reflexivity | ].
    rewrite mp_of_xq_correct, xq_of_rnd_correct, rndR_idem, xq_opp_correct, xq_of_rnd_correct.
    rewrite rndR_opp_rnd. rewrite <- rndR_opp. f_equal.
    simpl in He. inversion He; subst. rewrite !xq_sub_correct. ring.
Qed.

Definition arule_at (o : aop) (k : akind) : arule :=
  match lookup_arule mpfr_arith o k with Some r => r | None => ARThrow EXN_NOTIMPL end.

Definition all_pairs : list (aop * akind) := map fst mpfr_arith.

(* (operation, operand kind) pairs whose rule rounds once at the larger precision *)
Definition single_rounding_pairs : list (aop * akind) :=
  filter (fun ok => rule_single_rounding (fst ok) (snd ok) (arule_at (fst ok) (snd ok))) all_pairs.

(* the pairs that return a RealMPFR but not by one rounding of the exact operands *)
Definition other_real_pairs : list (aop * akind) :=
  filter (fun ok => match arule_at (fst ok) (snd ok) with
                    | ARule _ _ _ => negb (rule_single_rounding (fst ok) (snd ok) (arule_at (fst ok) (snd ok)))
                    | ARThrow _ => false
                    end) all_pairs.

Theorem single_rounding_pairs_eq :
  single_rounding_pairs =
  [(OAdd, KInteger); (OAdd, KRational); (OAdd, KRealDouble); (OAdd, KRealMPFR);
   (OSub, KInteger); (OSub, KRational); (OSub, KRealDouble); (OSub, KRealMPFR);
   (ORsub, KInteger); (ORsub, KRational); (ORsub, KRealDouble);
   (OMul, KInteger); (OMul, KRational); (OMul, KRealDouble); (OMul, KRealMPFR);
   (ODiv, KInteger); (ODiv, KRational); (ODiv, KRealDouble); (ODiv, KRealMPFR);
   (ORdiv, KRealDouble);
   (OPow, KInteger); (OPow, KRealMPFR)].
Proof. vm_compute. reflexivity. Qed.

(* exact dividend / exact or inexact exponent or base converted first: two roundings *)
Theorem other_real_pairs_eq :
  other_real_pairs =
  [(ORdiv, KInteger); (ORdiv, KRational); (OPow, KRational); (OPow, KRealDouble);
   (ORpow, KInteger); (ORpow, KRational); (ORpow, KRealDouble)].
Proof. vm_compute. reflexivity. Qed.

(* operand kinds that need MPC: SymEngineException *)
Theorem complex_pairs_throw :
  forallb (fun o => forallb (fun k => match arule_at o k with ARThrow c => N.eqb c EXN_SYMENGINE | _ => false end)
                            [KComplex; KComplexDouble])
          [OAdd; OSub; ORsub; OMul; ODiv; ORdiv; OPow; ORpow] = true.
Proof. vm_compute. reflexivity. Qed.

(* the guards of the single-rounding rules: the exact-zero shortcut of Integer multiplication and
   the negative-base test of pow *)
Definition guard_ok (o : aop) (k : akind) (g : aguard) : bool :=
  match g with
  | GNone => true
  | GOtherZeroExact => match o with OMul => true | _ => false end && match k with KInteger => true | _ => false end
  | GSelfNegThrows => match o with OPow => true | _ => false end
  | GOtherNegThrows => false
  end.

Lemma guards_of_single :
  forallb (fun ok => match arule_at (fst ok) (snd ok) with ARule g _ _ => guard_ok (fst ok) (snd ok) g | ARThrow _ => true end)
          single_rounding_pairs = true.
Proof. vm_compute. reflexivity. Qed.

Lemma rules_of_single :
  forallb (fun ok => rule_single_rounding (fst ok) (snd ok) (arule_at (fst ok) (snd ok))) single_rounding_pairs = true.
Proof. vm_compute. reflexivity. Qed.

Lemma in_single_rounding : forall o k, In (o, k) single_rounding_pairs ->
  exists g psel steps, lookup_arule mpfr_arith o k = Some (ARule g psel steps)
                       /\ rule_single_rounding o k (ARule g psel steps) = true.
Proof.
  intros o k H. pose proof rules_of_single as HR. rewrite forallb_forall in HR. specialize (HR (o, k) H).
  cbn [fst snd] in HR. unfold arule_at in HR.
  destruct (lookup_arule mpfr_arith o k) as [[g p s | c] |]; [ eauto | discriminate HR | discriminate HR ].
Qed.

(* the statement used by the obligation file: for every pair of the list above, on finite operands,
   when no guard fires, RealMPFR(ps, vs).<o>real(other) is a RealMPFR whose precision is the larger
   operand precision and whose value is the exact result rounded ONCE to nearest-even (Flocq's
   [round] in the format FLX with that many bits) *)
Theorem mpfr_arith_correctly_rounded :
  forall o k ps vs other xs xo q,
    In (o, k) single_rounding_pairs ->
    opd_kind other = k ->
    xq_of_mpv vs = Some xs -> opd_val other = Some xo ->
    exp_bounded o xs xo = true ->
    exact_op o xs xo = Some q ->
    (arith_run mpfr_arith o ps vs other = AExactZero /\ o = OMul /\ k = KInteger /\ xq2R xo = 0) \/
    (arith_run mpfr_arith o ps vs other = AExn EXN_SYMENGINE /\ o = OPow /\ xq2R xs < 0) \/
    exists v r,
      arith_run mpfr_arith o ps vs other = AVal (result_prec ps other) v /\
      is_exact o (xq2R xs) (xq2R xo) r /\
      mpv2R v = round radix2 (FLX_exp (Zpos (result_prec ps other))) ZnearestE r /\
      result_prec ps other = match other with DMpfr po _ => Pos.max ps po | _ => ps end.
Proof.
  intros o k ps vs other xs xo q Hin Hk Hs Ho Hb He.
  destruct (in_single_rounding o k Hin) as [g [psel [steps [Hl Hr]]]].
  unfold arith_run. rewrite Hk, Hl.
  destruct (guard_fires g xs xo) as [a | ] eqn:Hg.
  - (* a guard fires: which guards occur in the single-rounding rules is computed *)
    assert (Hgk : (g = GOtherZeroExact /\ o = OMul /\ k = KInteger) \/ (g = GSelfNegThrows /\ o = OPow)).
    { pose proof guards_of_single as HG. rewrite forallb_forall in HG. specialize (HG (o, k) Hin).
      cbn [fst snd] in HG. unfold arule_at in HG. rewrite Hl in HG.
      destruct g; cbn [guard_fires] in Hg; try discriminate Hg; cbn [guard_ok] in HG.
      - apply andb_prop in HG. destruct HG as [H1 H2].
        destruct o; try discriminate H1. destruct k; try discriminate H2. auto.
      - destruct o; try discriminate HG. auto.
      - discriminate HG. }
    destruct Hgk as [[-> [-> ->]] | [-> ->]].
    + left. unfold arith_exec. rewrite Hs, Ho, Hg. simpl in Hg.
      destruct (Z.eqb_spec (fst xo) 0) as [Hz | Hz]; [ | discriminate ].
      inversion Hg; subst. repeat split; auto.
      unfold xq2R. rewrite Hz. unfold Rdiv. apply Rmult_0_l.
    + right. left. unfold arith_exec. rewrite Hs, Ho, Hg. simpl in Hg.
      destruct (Z.ltb_spec (fst xs) 0) as [Hz | Hz]; [ | discriminate ].
      inversion Hg; subst. repeat split; auto.
      unfold xq2R, Rdiv.
      assert (H1 : IZR (fst xs) < 0) by (apply IZR_lt; exact Hz).
      assert (H2 : 0 < / IZR (Z.pos (snd xs))) by (apply Rinv_0_lt_compat; apply IZR_pos_gt0).
      nra.
  - right. right.
    destruct (arith_exec_correctly_rounded o k g psel steps ps vs other xs xo q Hr Hk Hs Ho Hg Hb He) as [v [Hv Hval]].
    exists v, (xq2R q). split; [ exact Hv | ]. split; [ apply exact_op_correct; exact He | ].
    split; [ exact Hval | ]. destruct other; reflexivity.
Qed.

(* the double roundings are observable.
   3 / RealMPFR(13, 4 bits): the library computes 1 / round(13/3) = 1 / 4.5 -> 0.21875; 3/13 rounds to 0.234375 *)
Theorem rdiv_integer_refuted :
  exists ps vs z, exists p1 v1 p2 v2,
    arith_run mpfr_arith ORdiv ps vs (DInt z) = AVal p1 v1 /\
    arith_ref ORdiv ps vs (DInt z) = Some (p2, v2) /\ mpv_eqb v1 v2 = false.
Proof.
  exists 4%positive, (VFin 13 0), 3%Z. do 4 eexists.
  split; [ vm_compute; reflexivity | ]. split; [ vm_compute; reflexivity | ]. vm_compute. reflexivity.
Qed.

Theorem rdiv_rational_refuted :
  exists ps vs n d, exists p1 v1 p2 v2,
    arith_run mpfr_arith ORdiv ps vs (DRat n d) = AVal p1 v1 /\
    arith_ref ORdiv ps vs (DRat n d) = Some (p2, v2) /\ mpv_eqb v1 v2 = false.
Proof.
  exists 4%positive, (VFin 13 0), 3%Z, 2%positive. do 4 eexists.
  split; [ vm_compute; reflexivity | ]. split; [ vm_compute; reflexivity | ]. vm_compute. reflexivity.
Qed.

(* the reference IS the correctly rounded result *)
Theorem arith_ref_correct : forall o ps vs other pt v xs xo,
  arith_ref o ps vs other = Some (pt, v) -> xq_of_mpv vs = Some xs -> opd_val other = Some xo ->
  pt = result_prec ps other /\
  exists r, is_exact o (xq2R xs) (xq2R xo) r /\ mpv2R v = round radix2 (FLX_exp (Zpos pt)) ZnearestE r.
Proof.
  intros o ps vs other pt v xs xo H Hs Ho. unfold arith_ref in H. rewrite Hs, Ho in H.
  destruct (exact_op o xs xo) as [q | ] eqn:He; [ | discriminate ].
  inversion H; subst. split; [ reflexivity | ].
  exists (xq2R q). split; [ apply exact_op_correct; auto | apply mp_of_xq_correct ].
Qed.
