(* C45 -- theorems about the GENERATED table mpfr_rules (EvalMPFRVisitor):
   mpfr_rules_ideal       every class with a specification has a formula that, interpreted over the
                          reals, is the mathematical function of the class; Pow, the constants, the
                          folds of Add / Mul / Max / Min;
   mpfr_agree, _agree_sem class by class the same function as the double table (visitor_rules of
                          Eval/Gen_EvalRules.v): syntactically after expanding the functions MPFR has
                          natively, and semantically on the domain of each specified class. *)
From Coq Require Import Reals Lra Lia ZArith NArith List Bool.
From Flocq Require Import Core.Raux.
From SE Require Import Gen.TypeCodes Eval.EvalModel Eval.EvalIdeal Eval.EvalSpec Eval.Gen_EvalRules Eval.TableProofs
  C45.MpfrTerm C45.Gen_MpfrRules C45.MpfrSpec.
Import ListNotations.
Local Open Scope R_scope.

(* the formulas of eval_mpfr: f(x) (f native in MPFR or shared with the double evaluators), f(1 / x),
   if (cmp(x, y)) 1 else 0 *)
Definition mun (f : mfun) : option (list nat * mterm) := Some ([0%nat], MUn f (MArg 0)).
Definition mun_recip (u : ufun) : option (list nat * mterm) :=
  Some ([0%nat], MUn (MU u) (MBin (MB BDiv) (MLit L1) (MArg 0))).
Definition mcmp (f : mbin) : option (list nat * mterm) :=
  Some ([0%nat; 1%nat], MIf (MBin f (MArg 0) (MArg 1)) (MLit L1) (MLit L0)).

(* the formula each class of MpfrSpec.mspec_table is expected to have, in the order of that table;
   None: eval_mpfr does not accept the class *)
Definition mcanon : list (N * option (list nat * mterm)) := [
  (TC_Sin, mun (MU USin)); (TC_Cos, mun (MU UCos)); (TC_Tan, mun (MU UTan));
  (TC_Cot, mun MCot); (TC_Sec, mun MSec); (TC_Csc, mun MCsc);
  (TC_ASin, mun (MU UAsin)); (TC_ACos, mun (MU UAcos)); (TC_ATan, mun (MU UAtan));
  (TC_ACot, mun_recip UAtan); (TC_ASec, mun_recip UAcos); (TC_ACsc, mun_recip UAsin);
  (TC_Sinh, mun (MU USinh)); (TC_Cosh, mun (MU UCosh)); (TC_Tanh, mun (MU UTanh));
  (TC_Coth, mun MCoth); (TC_Sech, mun MSech); (TC_Csch, mun MCsch);
  (TC_ASinh, mun (MU UAsinh)); (TC_ACosh, mun (MU UAcosh)); (TC_ATanh, mun (MU UAtanh));
  (TC_ACoth, mun_recip UAtanh); (TC_ASech, mun_recip UAcosh); (TC_ACsch, mun_recip UAsinh);
  (TC_Log, mun (MU ULog)); (TC_Abs, mun (MU UAbs)); (TC_Gamma, mun (MU UGamma)); (TC_LogGamma, mun MLnGamma);
  (TC_Erf, mun (MU UErf)); (TC_Erfc, mun (MU UErfc));
  (TC_Sign, None); (TC_Floor, None); (TC_Ceiling, None); (TC_Truncate, None);
  (TC_ATan2, Some ([0%nat; 1%nat], MBin (MB BAtan2) (MArg 0) (MArg 1)));
  (TC_Equality, mcmp (MB BEq)); (TC_Unequality, mcmp MLessGreater);
  (TC_LessThan, mcmp (MB BLe)); (TC_StrictLessThan, mcmp (MB BLt));
  (* the incomplete gamma functions: the second argument is evaluated first *)
  (TC_UpperGamma, Some ([1%nat; 0%nat], MBin MGammaInc (MArg 1) (MArg 0)));
  (TC_LowerGamma, Some ([1%nat; 0%nat], MBin MSub (MUn (MU UGamma) (MArg 1)) (MBin MGammaInc (MArg 1) (MArg 0))))
].

Definition mrow_ok (tbl : list (N * mrule)) (c : N) (f : option (list nat * mterm)) : Prop :=
  match f with
  | Some f => lookup_mrule tbl c = Some (MRFormula (fst f) (snd f))
  | None => match lookup_mrule tbl c with Some (MRThrow _) => True | _ => False end
  end.

Section TABLE.
Variables gamma_R erf_R erfc_R : R -> R.
Variable gamma_inc_R : R -> R -> R.
Variables euler_R catalan_R : R.
Variable lit_other : lit -> R.

Notation minterpR := (minterp_R gamma_R erf_R erfc_R gamma_inc_R euler_R catalan_R lit_other).
Notation MSAT := (msat gamma_R erf_R erfc_R gamma_inc_R euler_R catalan_R lit_other).
Notation LNG := (lngamma_R gamma_R).
Notation MRUN := (MR_un gamma_R erf_R erfc_R).
Notation MRBIN := (MR_bin gamma_inc_R).

(* a formula of one of the shapes meets a specification if its function does *)
Lemma msat_un : forall f (dom : R -> Prop) g, (forall x, dom x -> MRUN f x = g x) ->
  MSAT (SFun dom g) [0%nat] (MUn f (MArg 0)).
Proof. intros f dom g H x Hx. cbn [minterp_R sel_vals map nth nth_error option_map]. rewrite (H x Hx). reflexivity. Qed.

Lemma msat_inv_un : forall u (dom : R -> Prop) (char : R -> R -> Prop), (forall x, dom x -> char x (MRUN (MU u) x)) ->
  MSAT (SInv dom char) [0%nat] (MUn (MU u) (MArg 0)).
Proof. intros u dom char H x Hx. cbn [minterp_R sel_vals map nth nth_error option_map]. eauto. Qed.

Lemma msat_inv_un_recip : forall u (dom : R -> Prop) (char : R -> R -> Prop),
  (forall x, dom x -> char x (MRUN (MU u) (1 / x))) ->
  MSAT (SInv dom char) [0%nat] (MUn (MU u) (MBin (MB BDiv) (MLit L1) (MArg 0))).
Proof.
  intros u dom char H x Hx. cbn [minterp_R sel_vals map nth nth_error option_map MR_bin R_bin R_lit]. eauto.
Qed.

(* if (cmp(a, b)) 1 else 0 is the truth value of the comparison *)
Lemma msat_cmp : forall f (b : R -> R -> bool) (h : R -> R -> R),
  (forall x y, MRBIN f x y = b2r (b x y)) -> (forall x y, h x y = if b x y then 1 else 0) ->
  MSAT (SFun2 all2 h) [0%nat; 1%nat] (MIf (MBin f (MArg 0) (MArg 1)) (MLit L1) (MLit L0)).
Proof.
  intros f b h Hf Hh x y _. cbn [minterp_R sel_vals map nth nth_error R_lit].
  rewrite Hf, r_true_b2r, Hh. destruct (b x y); reflexivity.
Qed.

Lemma mcanon_sat :
  Forall2 (fun row f => fst row = fst f /\
                        match snd f with Some g => MSAT (snd row) (fst g) (snd g) | None => True end)
          (mspec_table gamma_R erf_R erfc_R gamma_inc_R) mcanon.
Proof.
  unfold mspec_table, spec_table, mpfr_extra_spec, mcanon. cbn [app].
  repeat (apply Forall2_cons; [ split; [ reflexivity | cbn [fst snd mun mun_recip mcmp] ] | ]);
    [ .. | apply Forall2_nil ].
  - (* sin *) apply msat_un. reflexivity.
  - (* cos *) apply msat_un. reflexivity.
  - (* tan *) apply msat_un. reflexivity.
  - (* cot *) apply msat_un. reflexivity.
  - (* sec *) apply msat_un. reflexivity.
  - (* csc *) apply msat_un. reflexivity.
  - (* asin *) apply msat_inv_un. exact asin_ok.
  - (* acos *) apply msat_inv_un. exact acos_ok.
  - (* atan *) apply msat_inv_un. exact atan_ok.
  - (* acot *) apply msat_inv_un_recip. exact acot_ok.
  - (* asec *) apply msat_inv_un_recip. exact asec_ok.
  - (* acsc *) apply msat_inv_un_recip. exact acsc_ok.
  - (* sinh *) apply msat_un. reflexivity.
  - (* cosh *) apply msat_un. reflexivity.
  - (* tanh *) apply msat_un. reflexivity.
  - (* coth *) apply msat_un. reflexivity.
  - (* sech *) apply msat_un. reflexivity.
  - (* csch *) apply msat_un. reflexivity.
  - (* asinh *) apply msat_inv_un. intros. apply sinh_arcsinh.
  - (* acosh *) apply msat_inv_un. exact acosh_ok.
  - (* atanh *) apply msat_inv_un. exact tanh_atanh.
  - (* acoth *) apply msat_inv_un_recip. exact acoth_ok.
  - (* asech *) apply msat_inv_un_recip. exact asech_ok.
  - (* acsch *) apply msat_inv_un_recip. exact acsch_ok.
  - (* log *) apply msat_inv_un. exact log_ok.
  - (* abs *) apply msat_un. reflexivity.
  - (* Gamma *) apply msat_un. reflexivity.
  - (* log Gamma *) apply msat_un. reflexivity.
  - (* erf *) apply msat_un. reflexivity.
  - (* erfc *) apply msat_un. reflexivity.
  - (* sign *) exact I.
  - (* floor *) exact I.
  - (* ceiling *) exact I.
  - (* truncate *) exact I.
  - (* atan2 *) intros x y _. reflexivity.
  - (* == *) apply (msat_cmp _ r_eqb); [ reflexivity | ]. intros x y. unfold r_eqb. destruct (Req_EM_T x y); reflexivity.
  - (* != *) apply (msat_cmp _ (fun x y => negb (r_eqb x y))); [ reflexivity | ].
    intros x y. unfold r_eqb. destruct (Req_EM_T x y); reflexivity.
  - (* <= *) apply (msat_cmp _ r_leb); [ reflexivity | ]. intros x y. unfold r_leb. destruct (Rle_dec x y); reflexivity.
  - (* < *) apply (msat_cmp _ r_ltb); [ reflexivity | ]. intros x y. unfold r_ltb. destruct (Rlt_dec x y); reflexivity.
  - (* upper gamma *) intros x y _. reflexivity.
  - (* lower gamma *) intros x y _. reflexivity.
Qed.

Theorem mpfr_table_ideal : mtable_ideal gamma_R erf_R erfc_R gamma_inc_R euler_R catalan_R lit_other mpfr_rules.
Proof.
  unfold mtable_ideal.
  apply (rows_ideal _ _ (fun sp f => match f with Some g => MSAT sp (fst g) (snd g) | None => True end)
                    (mrow_ok mpfr_rules)
                    (fun c sp => mrule_meets gamma_R erf_R erfc_R gamma_inc_R euler_R catalan_R lit_other sp
                                             (lookup_mrule mpfr_rules c)) mcanon_sat).
  - repeat (constructor; [ vm_compute; constructor | ]). constructor.
  - intros c sp [g |] Hs Hr; unfold mrow_ok in Hr; unfold mrule_meets.
    + rewrite Hr. exact Hs.
    + destruct (lookup_mrule mpfr_rules c) as [[] |]; try contradiction. exact I.
Qed.

Theorem mpfr_pow_ideal : mpow_meets gamma_R erf_R erfc_R gamma_inc_R euler_R catalan_R lit_other (lookup_mrule mpfr_rules TC_Pow).
Proof. repeat split. exact Rpower_exp1. Qed.

Theorem mpfr_const_ideal : mconst_meets gamma_R erf_R erfc_R gamma_inc_R euler_R catalan_R lit_other (lookup_mrule mpfr_rules TC_Constant).
Proof.
  hnf. intros nm v Hin. cbv [const_values] in Hin. simpl In in Hin.
  repeat (destruct Hin as [Hin | Hin];
          [ injection Hin as <- <-; eexists; split;
            [ vm_compute; reflexivity
            | cbn [minterp_R sel_vals map nth nth_error option_map MR_un MR_bin MR_const R_un R_bin R_lit]; try reflexivity ] | ]);
    try contradiction.
  (* GoldenRatio: (sqrt 5 + 1) / 2 *)
  f_equal. simpl. lra.
Qed.

Lemma fold_add_sum : forall l x, fold_left (fun acc v => acc + v) l x = x + fold_right Rplus 0 l.
Proof. induction l as [ | a l IH ]; intro x; simpl; [ lra | rewrite IH; lra ]. Qed.
Lemma fold_mul_prod : forall l x, fold_left (fun acc v => acc * v) l x = x * fold_right Rmult 1 l.
Proof. induction l as [ | a l IH ]; intro x; simpl; [ lra | rewrite IH; lra ]. Qed.

(* a fold with a selection (max, min) returns one of the elements, and that one bounds them all in
   the order le in which a selection bounds its two arguments *)
Lemma fold_sel_spec : forall (sel : R -> R -> R) (le : R -> R -> Prop),
  (forall x y, sel x y = x \/ sel x y = y) ->
  (forall x y, le x (sel x y)) -> (forall x y, le y (sel x y)) ->
  (forall x, le x x) -> (forall x y z, le x y -> le y z -> le x z) ->
  forall l x, let r := fold_left sel l x in In r (x :: l) /\ forall v, In v (x :: l) -> le v r.
Proof.
  intros sel le Hc Hl Hr Hrefl Htrans. induction l as [ | a l IH ]; intro x; simpl.
  - split; [ auto | intros v [<- | []]; apply Hrefl ].
  - destruct (IH (sel x a)) as [Hin Hle]. simpl in Hin, Hle. split.
    + destruct Hin as [Hin | Hin]; [ | auto ]. destruct (Hc x a) as [Hc' | Hc']; rewrite Hc' in Hin |- *; auto.
    + intros v [<- | [<- | Hv]].
      * apply Htrans with (sel x a); [ apply Hl | apply Hle; auto ].
      * apply Htrans with (sel x a); [ apply Hr | apply Hle; auto ].
      * apply Hle; auto.
Qed.

Lemma fold_max_spec : forall l x,
  let r := fold_left (fun acc v => Rmax acc v) l x in In r (x :: l) /\ forall v, In v (x :: l) -> v <= r.
Proof.
  apply (fold_sel_spec Rmax Rle); [ | exact Rmax_l | exact Rmax_r | exact Rle_refl | exact Rle_trans ].
  intros x y. apply Rmax_case; auto.
Qed.

(* the same in the reversed order *)
Lemma fold_min_spec : forall l x,
  let r := fold_left (fun acc v => Rmin acc v) l x in In r (x :: l) /\ forall v, In v (x :: l) -> r <= v.
Proof.
  apply (fold_sel_spec Rmin (fun v r => r <= v)); [ | exact Rmin_l | exact Rmin_r | exact Rle_refl | ].
  - intros x y. apply Rmin_case; auto.
  - intros x y z H1 H2. exact (Rle_trans z y x H2 H1).
Qed.

Theorem mpfr_add_ideal : mfold_meets gamma_inc_R (lookup_mrule mpfr_rules TC_Add) is_sum.
Proof. intros x l. exact (fold_add_sum l x). Qed.
Theorem mpfr_mul_ideal : mfold_meets gamma_inc_R (lookup_mrule mpfr_rules TC_Mul) is_prod.
Proof. intros x l. exact (fold_mul_prod l x). Qed.
Theorem mpfr_max_ideal : mfold_meets gamma_inc_R (lookup_mrule mpfr_rules TC_Max) is_max.
Proof. intros x l. exact (fold_max_spec l x). Qed.
Theorem mpfr_min_ideal : mfold_meets gamma_inc_R (lookup_mrule mpfr_rules TC_Min) is_min.
Proof. intros x l. exact (fold_min_spec l x). Qed.

End TABLE.

(* non-vacuity of mtable_ideal: the classes of the specification really have formulas *)
Definition is_mformula (r : option mrule) : bool :=
  match r with Some (MRFormula _ _) => true | _ => false end.

Definition mpfr_classes : list N :=
  [TC_Sin; TC_Cos; TC_Tan; TC_Cot; TC_Sec; TC_Csc; TC_ASin; TC_ACos; TC_ATan; TC_ACot; TC_ASec; TC_ACsc;
   TC_Sinh; TC_Cosh; TC_Tanh; TC_Coth; TC_Sech; TC_Csch; TC_ASinh; TC_ACosh; TC_ATanh; TC_ACoth; TC_ASech;
   TC_ACsch; TC_Log; TC_Abs; TC_Gamma; TC_LogGamma; TC_Erf; TC_Erfc; TC_ATan2; TC_Equality; TC_Unequality;
   TC_LessThan; TC_StrictLessThan; TC_UpperGamma; TC_LowerGamma].

Theorem mpfr_table_covers_spec :
  forallb (fun c => is_mformula (lookup_mrule mpfr_rules c)) mpfr_classes = true /\ length mpfr_classes = 37%nat.
Proof. split; vm_compute; reflexivity. Qed.

Definition recip (t : fterm) : fterm := FBin BDiv (FLit L1) t.

Definition is_cmp (f : mbin) : bool :=
  match f with MB BEq | MB BLe | MB BLt | MLessGreater => true | _ => false end.

(* the term of the double evaluators' language that denotes the same function:
   native functions are expanded (sec = 1/cos, coth = 1/tanh, ...), `if (cmp) 1 else 0` is cmp *)
Fixpoint lower (t : mterm) : option fterm :=
  match t with
  | MArg i => Some (FArg i)
  | MLit l => Some (FLit l)
  | MUi _ => None
  | MConst _ => None
  | MUn f a =>
      match lower a with
      | Some a' =>
          match f with
          | MU u => Some (FUn u a')
          | MSec => Some (recip (FUn UCos a'))
          | MCsc => Some (recip (FUn USin a'))
          | MCot => Some (recip (FUn UTan a'))
          | MSech => Some (recip (FUn UCosh a'))
          | MCsch => Some (recip (FUn USinh a'))
          | MCoth => Some (recip (FUn UTanh a'))
          | MLnGamma => Some (FUn ULgamma a')      (* log Gamma; C's lgamma is log |Gamma| *)
          | MSqrt => None
          end
      | None => None
      end
  | MBin f a b =>
      match lower a, lower b with
      | Some a', Some b' =>
          match f with
          | MB g => Some (FBin g a' b')
          | MLessGreater => Some (FBin BNe a' b')  (* they differ on NaN only *)
          | _ => None
          end
      | _, _ => None
      end
  | MIf c (MLit L1) (MLit L0) =>
      match c with
      | MBin f _ _ => if is_cmp f then lower c else None
      | _ => None
      end
  | MIf _ _ _ => None
  end.

Definition lower_rule (r : mrule) : option rule :=
  match r with
  | MRLeafInt => Some RLeafInt
  | MRLeafRat => Some RLeafRat
  | MRLeafDbl => Some RLeafDbl
  | MRLeafMpfr => None
  | MRFormula sel t => match lower t with Some ft => Some (RFormula sel ft) | None => None end
  | MRFoldFirst (MB BAdd) _ => Some (RFoldArgs L0 BAdd)     (* 0 + a1 + ... = a1 + ... *)
  | MRFoldFirst (MB BMul) _ => Some (RFoldArgs L1 BMul)
  | MRFoldFirst (MB f) _ => Some (RFoldFirst f 1)
  | MRFoldFirst _ _ => None
  | MRPow _ e g =>
      match lower e, lower g with
      | Some e', Some g' => Some (RPow true e' g')              (* the evaluation order of base / exponent is not compared *)
      | _, _ => None
      end
  | MRConstants _ => None                                       (* compared separately: const_agree *)
  | MRRewrite => None
  | MRWrapper => Some RWrapper
  | MRPass => Some RPass
  | MRThrow c => Some (RThrow c)
  end.

Definition mrule_at (c : N) : mrule :=
  match lookup_mrule mpfr_rules c with Some r => r | None => MRThrow EXN_NOTIMPL end.
Definition is_mthrow (r : mrule) : bool := match r with MRThrow _ => true | _ => false end.
Definition mall_codes : list N := map fst mpfr_rules.

Definition agree_at (c : N) : bool :=
  match lower_rule (mrule_at c) with
  | Some r => rule_agree (rule_at visitor_rules c) r
  | None => false
  end.

(* classes both evaluators accept whose rules are compared separately or cannot be compared *)
Definition mpfr_differs : list N := [TC_Constant].

Theorem mpfr_agree :
  forallb (fun c => is_mthrow (mrule_at c) || is_throw (rule_at visitor_rules c)
                    || existsb (N.eqb c) mpfr_differs || agree_at c) mall_codes = true.
Proof. vm_compute. reflexivity. Qed.

(* the classes compared (both accept, not in mpfr_differs): all agree *)
Theorem mpfr_agree_classes :
  filter (fun c => negb (is_mthrow (mrule_at c)) && negb (is_throw (rule_at visitor_rules c))
                   && negb (existsb (N.eqb c) mpfr_differs)) mall_codes
  = [TC_Integer; TC_Rational; TC_RealDouble; TC_NumberWrapper; TC_Mul; TC_Add; TC_Pow; TC_Log] ++
    [TC_Sin; TC_Cos; TC_Tan; TC_Cot; TC_Csc; TC_Sec; TC_ASin; TC_ACos; TC_ASec; TC_ACsc; TC_ATan; TC_ACot; TC_ATan2;
     TC_Sinh; TC_Csch; TC_Cosh; TC_Sech; TC_Tanh; TC_Coth; TC_ASinh; TC_ACsch; TC_ACosh; TC_ATanh; TC_ACoth; TC_ASech] ++
    [TC_Erf; TC_Erfc; TC_Gamma; TC_LogGamma; TC_FunctionWrapper; TC_Abs; TC_Max; TC_Min;
     TC_Equality; TC_Unequality; TC_LessThan; TC_StrictLessThan; TC_UnevaluatedExpr].
Proof. vm_compute. reflexivity. Qed.

(* classes eval_double accepts and eval_mpfr does not / the converse *)
Theorem mpfr_lacks :
  filter (fun c => is_mthrow (mrule_at c) && negb (is_throw (rule_at visitor_rules c))) mall_codes
  = [TC_Piecewise; TC_BooleanAtom].
Proof. vm_compute. reflexivity. Qed.

Theorem mpfr_extra :
  filter (fun c => negb (is_mthrow (mrule_at c)) && is_throw (rule_at visitor_rules c)) mall_codes
  = [TC_RealMPFR; TC_LowerGamma; TC_UpperGamma; TC_Beta].
Proof. vm_compute. reflexivity. Qed.

(* Constant: both tables know the same five names, and E is exp(1) in both *)
Definition const_names_m : list (list N) :=
  match mrule_at TC_Constant with MRConstants t => map fst t | _ => [] end.
Definition const_names_d : list (list N) :=
  match rule_at visitor_rules TC_Constant with RConstants t => map fst t | _ => [] end.

Theorem const_agree :
  const_names_m = const_names_d /\ length const_names_m = 5%nat /\
  (match mrule_at TC_Constant, rule_at visitor_rules TC_Constant with
   | MRConstants tm, RConstants td =>
       match mconst_lookup NM_E tm, const_find NM_E td with
       | Some a, Some b => match lower a with Some a' => fterm_eqb a' b | None => false end
       | _, _ => false
       end
   | _, _ => false
   end) = true.
Proof. repeat split; vm_compute; reflexivity. Qed.

(* agreement with the double table, semantically: on the domain of every specified class with a
   direct specification both formulas compute the same real number *)
Section SEM.
Variables gamma_R erf_R erfc_R : R -> R.
Variable gamma_inc_R : R -> R -> R.
Variables euler_R catalan_R : R.
Variable lit_other : lit -> R.
Notation LNG := (lngamma_R gamma_R).

Definition same_on (sp : cspec) (rm : option mrule) (rd : option rule) : Prop :=
  match sp, rm, rd with
  | SFun dom _, Some (MRFormula ms mt), Some (RFormula ds dt) =>
      forall x, dom x ->
        minterp_R gamma_R erf_R erfc_R gamma_inc_R euler_R catalan_R lit_other mt (sel_vals ms [x])
        = interp_R gamma_R LNG erf_R erfc_R lit_other dt [x]
  | SFun2 dom _, Some (MRFormula ms mt), Some (RFormula ds dt) =>
      forall x y, dom x y ->
        minterp_R gamma_R erf_R erfc_R gamma_inc_R euler_R catalan_R lit_other mt (sel_vals ms [x; y])
        = interp_R gamma_R LNG erf_R erfc_R lit_other dt [x; y]
  | _, _, _ => True
  end.

Theorem mpfr_agree_sem : forall c sp, In (c, sp) (spec_table gamma_R LNG erf_R erfc_R) ->
  same_on sp (lookup_mrule mpfr_rules c) (lookup_rule visitor_rules c).
Proof.
  intros c sp Hin.
  pose proof (mpfr_table_ideal gamma_R erf_R erfc_R gamma_inc_R euler_R catalan_R lit_other c sp) as Hm.
  pose proof (visitor_table_ideal gamma_R LNG erf_R erfc_R lit_other c sp Hin) as Hd.
  assert (Hin' : In (c, sp) (mspec_table gamma_R erf_R erfc_R gamma_inc_R)).
  { unfold mspec_table. apply in_or_app. left. exact Hin. }
  specialize (Hm Hin').
  destruct (lookup_mrule mpfr_rules c) as [rm | ]; [ | destruct sp; exact I ].
  destruct rm as [ | | | | ms mt | | | | | | | ]; try (destruct sp; exact I).
  destruct (lookup_rule visitor_rules c) as [rd | ]; [ | destruct sp; exact I ].
  destruct rd; try (destruct sp; exact I).
  destruct sp as [dom f | dom ch | dom f]; cbn [same_on]; try exact I.
  - cbn [mrule_meets msat] in Hm. cbn [rule_meets sat] in Hd. destruct Hd as [_ Hd].
    intros x Hx. rewrite (Hm x Hx), (Hd x Hx). reflexivity.
  - cbn [mrule_meets msat] in Hm. cbn [rule_meets sat] in Hd. destruct Hd as [_ Hd].
    intros x y Hxy. rewrite (Hm x y Hxy), (Hd x y Hxy). reflexivity.
Qed.
End SEM.

Theorem mpfr_rules_ideal :
  forall (gamma_R erf_R erfc_R : R -> R) (gamma_inc_R : R -> R -> R) (euler_R catalan_R : R) (lit_other : lit -> R),
    mtable_ideal gamma_R erf_R erfc_R gamma_inc_R euler_R catalan_R lit_other mpfr_rules /\
    mpow_meets gamma_R erf_R erfc_R gamma_inc_R euler_R catalan_R lit_other (lookup_mrule mpfr_rules TC_Pow) /\
    mconst_meets gamma_R erf_R erfc_R gamma_inc_R euler_R catalan_R lit_other (lookup_mrule mpfr_rules TC_Constant) /\
    mfold_meets gamma_inc_R (lookup_mrule mpfr_rules TC_Add) is_sum /\
    mfold_meets gamma_inc_R (lookup_mrule mpfr_rules TC_Mul) is_prod /\
    mfold_meets gamma_inc_R (lookup_mrule mpfr_rules TC_Max) is_max /\
    mfold_meets gamma_inc_R (lookup_mrule mpfr_rules TC_Min) is_min.
Proof.
  intros.
  split; [ apply mpfr_table_ideal | ].
  split; [ apply mpfr_pow_ideal | ].
  split; [ apply mpfr_const_ideal | ].
  split; [ apply mpfr_add_ideal | ].
  split; [ apply mpfr_mul_ideal | ].
  split; [ apply mpfr_max_ideal | apply mpfr_min_ideal ].
Qed.
