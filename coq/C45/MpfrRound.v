(* C45 -- the rounding function of the model IS Flocq's round-to-nearest-even in the format with
   p bits and unbounded exponents (FLX), and the exact rational arithmetic of the model is real
   arithmetic.  Used by MpfrArith.v. *)
From Coq Require Import ZArith NArith List Bool Reals Lra Lia.
From Flocq Require Import Core Calc.Bracket Calc.Div Calc.Round.
From SE Require Import C45.MpfrModel.
Import ListNotations.
Local Open Scope R_scope.

Definition xq2R (q : xq) : R := IZR (fst q) / IZR (Zpos (snd q)).
Definition dy2R (m e : Z) : R := F2R (Float radix2 m e).
Definition rndR (p : positive) (x : R) : R := round radix2 (FLX_exp (Zpos p)) ZnearestE x.

Lemma prec_gt_0_pos : forall p, Prec_gt_0 (Zpos p).
Proof. intro p. reflexivity. Qed.
#[export] Existing Instance prec_gt_0_pos.

Lemma IZR_pos_neq0 : forall d : positive, IZR (Zpos d) <> 0.
Proof. intro d. apply IZR_neq. discriminate. Qed.

Lemma IZR_pos_gt0 : forall d : positive, 0 < IZR (Zpos d).
Proof. intro d. apply IZR_lt. reflexivity. Qed.

Lemma F2R_exp0 : forall m, F2R (Float radix2 m 0) = IZR m.
Proof. intro m. unfold F2R. simpl. lra. Qed.

Lemma rnd_pos_correct : forall p n d,
  dy2R (fst (rnd_pos p n d)) (snd (rnd_pos p n d)) = rndR p (IZR (Zpos n) / IZR (Zpos d)).
Proof.
  intros p n d. unfold rnd_pos, rndR, dy2R.
  pose proof (@Fdiv_correct radix2 (fexp_p p) (Float radix2 (Zpos n) 0) (Float radix2 (Zpos d) 0)) as H.
  rewrite !F2R_exp0 in H.
  specialize (H (IZR_pos_gt0 n) (IZR_pos_gt0 d)).
  destruct (Fdiv (fexp_p p) (Float radix2 (Zpos n) 0) (Float radix2 (Zpos d) 0)) as [[m e] l].
  destruct H as [He Hin].
  assert (Hx : 0 <= IZR (Zpos n) / IZR (Zpos d)).
  { apply Rlt_le. apply Rdiv_lt_0_compat; apply IZR_pos_gt0. }
  pose proof (@round_trunc_NE_correct' radix2 (fexp_p p) (FLX_exp_valid (Zpos p)) _ m e l Hx Hin (or_introl He)) as Hr.
  unfold fexp_p in *.
  rewrite Hr.
  destruct (truncate radix2 (FLX_exp (Zpos p)) (m, e, l)) as [[m' e'] l'].
  reflexivity.
Qed.

Theorem rnd_q_correct : forall p n d,
  dy2R (fst (rnd_q p n d)) (snd (rnd_q p n d)) = rndR p (IZR n / IZR (Zpos d)).
Proof.
  intros p n d. destruct n as [ | n | n ]; unfold rnd_q.
  - unfold dy2R, rndR. simpl. rewrite F2R_0. unfold Rdiv. rewrite Rmult_0_l. rewrite round_0; auto with typeclass_instances.
  - apply rnd_pos_correct.
  - pose proof (rnd_pos_correct p n d) as H.
    destruct (rnd_pos p n d) as [m e]. simpl in *.
    unfold dy2R in *. rewrite F2R_Zopp, H. unfold rndR.
    rewrite <- round_NE_opp. f_equal.
    change (Zneg n) with (- Zpos n)%Z. rewrite opp_IZR. field. apply IZR_pos_neq0.
Qed.

(* stripping trailing zero bits (the canonical form of a result) keeps the value *)
Lemma strip2_F2R : forall q e,
  dy2R (Zpos (fst (strip2 q e))) (snd (strip2 q e)) = dy2R (Zpos q) e.
Proof.
  induction q as [q IH | q IH | ]; intro e; try reflexivity.
  simpl. rewrite IH. unfold dy2R, F2R. simpl Fnum. simpl Fexp.
  rewrite bpow_plus_1. rewrite (Pos2Z.inj_xO q), mult_IZR. simpl (IZR radix2). ring.
Qed.

Lemma strip2_F2R_neg : forall q e,
  dy2R (Zneg (fst (strip2 q e))) (snd (strip2 q e)) = dy2R (Zneg q) e.
Proof.
  intros q e. pose proof (strip2_F2R q e) as H. unfold dy2R in *.
  change (Zneg (fst (strip2 q e))) with (- Zpos (fst (strip2 q e)))%Z.
  change (Zneg q) with (- Zpos q)%Z.
  rewrite !F2R_Zopp. rewrite H. reflexivity.
Qed.

Lemma norm_dy_F2R : forall m e, dy2R (fst (norm_dy m e)) (snd (norm_dy m e)) = dy2R m e.
Proof.
  intros [ | q | q ] e; unfold norm_dy.
  - unfold dy2R. simpl. rewrite !F2R_0. reflexivity.
  - pose proof (strip2_F2R q e). destruct (strip2 q e). exact H.
  - pose proof (strip2_F2R_neg q e). destruct (strip2 q e). exact H.
Qed.

Definition mpv2R (v : mpv) : R := match v with VFin m e => dy2R m e | _ => 0 end.

Theorem mp_of_xq_correct : forall p q, mpv2R (mp_of_xq p q) = rndR p (xq2R q).
Proof.
  intros p q. unfold mp_of_xq, xq2R.
  pose proof (rnd_q_correct p (fst q) (snd q)) as H.
  destruct (rnd_q p (fst q) (snd q)) as [m e]. simpl in H.
  pose proof (norm_dy_F2R m e) as Hn.
  destruct (norm_dy m e) as [m' e']. simpl in *. rewrite Hn. exact H.
Qed.

Lemma mp_of_xq_fin : forall p q, exists m e, mp_of_xq p q = VFin m e.
Proof.
  intros p q. unfold mp_of_xq. destruct (rnd_q p (fst q) (snd q)) as [m e].
  destruct (norm_dy m e) as [m' e']. eauto.
Qed.

Lemma xq_of_dy_correct : forall m e, xq2R (xq_of_dy m e) = dy2R m e.
Proof.
  intros m e. unfold xq_of_dy, xq2R, dy2R, F2R. simpl Fnum. simpl Fexp.
  destruct (Z.leb_spec 0 e) as [He | He]; simpl fst; simpl snd.
  - rewrite mult_IZR. change 2%Z with (radix_val radix2). rewrite IZR_Zpower by auto. field.
  - assert (Hp : (0 < 2 ^ (- e))%Z) by (apply Z.pow_pos_nonneg; lia).
    rewrite Z2Pos.id by auto.
    change 2%Z with (radix_val radix2). rewrite IZR_Zpower by lia.
    rewrite bpow_opp. field.
    apply Rgt_not_eq. apply bpow_gt_0.
Qed.

Lemma xq_add_correct : forall a b, xq2R (xq_add a b) = xq2R a + xq2R b.
Proof.
  intros [a1 a2] [b1 b2]. unfold xq_add, xq2R. simpl fst. simpl snd.
  rewrite plus_IZR, !mult_IZR, Pos2Z.inj_mul, mult_IZR.
  field. split; apply IZR_pos_neq0.
Qed.

Lemma xq_opp_correct : forall a, xq2R (xq_opp a) = - xq2R a.
Proof.
  intros [a1 a2]. unfold xq_opp, xq2R. simpl fst. simpl snd. rewrite opp_IZR. field. apply IZR_pos_neq0.
Qed.

Lemma xq_sub_correct : forall a b, xq2R (xq_sub a b) = xq2R a - xq2R b.
Proof. intros. unfold xq_sub. rewrite xq_add_correct, xq_opp_correct. ring. Qed.

Lemma xq_mul_correct : forall a b, xq2R (xq_mul a b) = xq2R a * xq2R b.
Proof.
  intros [a1 a2] [b1 b2]. unfold xq_mul, xq2R. simpl fst. simpl snd.
  rewrite mult_IZR, Pos2Z.inj_mul, mult_IZR. field. split; apply IZR_pos_neq0.
Qed.

Lemma xq_inv_correct : forall a q, xq_inv a = Some q -> xq2R a <> 0 /\ xq2R q = / xq2R a.
Proof.
  intros [a1 a2] q. unfold xq_inv, xq2R. simpl fst. simpl snd.
  destruct a1 as [ | n | n ]; intro H; inversion H; subst; clear H; simpl fst; simpl snd.
  - split.
    + apply Rgt_not_eq. apply Rdiv_lt_0_compat; apply IZR_pos_gt0.
    + field. split; apply IZR_pos_neq0.
  - assert (Hn : IZR (Zneg n) <> 0) by (apply IZR_neq; discriminate).
    split.
    + unfold Rdiv. apply Rmult_integral_contrapositive_currified; auto.
      apply Rinv_neq_0_compat. apply IZR_pos_neq0.
    + change (Zneg a2) with (- Zpos a2)%Z. change (Zneg n) with (- Zpos n)%Z.
      rewrite !opp_IZR. field. split; apply IZR_pos_neq0.
Qed.

Lemma xq_div_correct : forall a b q, xq_div a b = Some q -> xq2R b <> 0 /\ xq2R q = xq2R a / xq2R b.
Proof.
  intros a b q. unfold xq_div. destruct (xq_inv b) as [ib | ] eqn:Hi; intro H; inversion H; subst.
  destruct (xq_inv_correct b ib Hi) as [Hb Hv]. split; auto.
  rewrite xq_mul_correct, Hv. reflexivity.
Qed.

Lemma xq_pow_pos_correct : forall a k, xq2R (xq_pow_pos a k) = xq2R a ^ Pos.to_nat k.
Proof.
  intros [a1 a2] k. unfold xq_pow_pos, xq2R. simpl fst. simpl snd.
  rewrite Zpower_pos_powerRZ. cbn [powerRZ].
  rewrite Pos2Z.inj_pow. change (Z.pos a2 ^ Z.pos k)%Z with (Z.pow_pos (Z.pos a2) k).
  rewrite Zpower_pos_powerRZ. cbn [powerRZ].
  unfold Rdiv. rewrite Rpow_mult_distr, pow_inv. reflexivity.
Qed.

Lemma xq_pow_correct : forall a k q, xq_pow a k = Some q -> xq2R q = powerRZ (xq2R a) k.
Proof.
  intros a k q. destruct k as [ | k | k ]; unfold xq_pow; intro H.
  - inversion H; subst. unfold xq2R. simpl. field.
  - inversion H; subst. rewrite xq_pow_pos_correct. reflexivity.
  - destruct (xq_inv_correct _ _ H) as [_ Hv]. rewrite Hv, xq_pow_pos_correct. reflexivity.
Qed.

Lemma xq_to_Z_correct : forall a k, xq_to_Z a = Some k -> xq2R a = IZR k.
Proof.
  intros [a1 a2] k. unfold xq_to_Z, xq2R. simpl fst. simpl snd.
  destruct (Z.eqb_spec (a1 mod Z.pos a2) 0) as [Hm | Hm]; intro H; inversion H; subst; clear H.
  assert (Ha : a1 = (Z.pos a2 * (a1 / Z.pos a2))%Z).
  { pose proof (Z.div_mod a1 (Z.pos a2)). lia. }
  rewrite Ha at 1. rewrite mult_IZR. field. apply IZR_pos_neq0.
Qed.
