(* C24 -- the mathematical side: matrices over Q as functions, finite sums, products,
   identity, triangular shapes, elementary row operations / row equivalence, reduced row
   echelon form, determinant by cofactor expansion.  No reference to the model's loops. *)
From SE Require Import C24.DenseModel C24.DenseBase.
From Coq Require Import Lia ZifyBool ZifyNat ZifyN.
Local Open Scope N_scope.

Fixpoint sum_upto (n : nat) (f : N -> Qc) : Qc :=
  match n with
  | O => 0%Qc
  | S k => (sum_upto k f + f (N.of_nat k))%Qc
  end.
(* sum of f k for k < n *)
Definition sumN (n : N) (f : N -> Qc) : Qc := sum_upto (N.to_nat n) f.

Lemma sumN_0 f : sumN 0 f = 0%Qc.
Proof. reflexivity. Qed.

Lemma sumN_succ n f : sumN (n + 1) f = (sumN n f + f n)%Qc.
Proof.
  unfold sumN. replace (N.to_nat (n + 1)) with (S (N.to_nat n)) by lia.
  cbn [sum_upto]. now rewrite N2Nat.id.
Qed.

Lemma sum_upto_ext n f g : (forall k, k < N.of_nat n -> f k = g k) -> sum_upto n f = sum_upto n g.
Proof.
  induction n as [|n IH]; intros H; cbn [sum_upto]; [reflexivity|].
  rewrite IH by (intros k Hk; apply H; lia). rewrite H by lia. reflexivity.
Qed.

Lemma sumN_ext n f g : (forall k, k < n -> f k = g k) -> sumN n f = sumN n g.
Proof. intros H. unfold sumN. apply sum_upto_ext. intros k Hk. apply H. lia. Qed.

Lemma sumN_zero n f : (forall k, k < n -> f k = 0%Qc) -> sumN n f = 0%Qc.
Proof.
  unfold sumN. intros H.
  assert (forall m, (m <= N.to_nat n)%nat -> sum_upto m f = 0%Qc) as G.
  { induction m as [|m IH]; intros Hm; cbn [sum_upto]; [reflexivity|].
    rewrite IH by lia. rewrite H by lia. ring. }
  apply G. lia.
Qed.

Lemma sumN_plus n f g : sumN n (fun k => (f k + g k)%Qc) = (sumN n f + sumN n g)%Qc.
Proof.
  unfold sumN. induction (N.to_nat n) as [|m IH]; cbn [sum_upto]; [ring|]. rewrite IH. ring.
Qed.

Lemma sumN_scale n c f : sumN n (fun k => (c * f k)%Qc) = (c * sumN n f)%Qc.
Proof.
  unfold sumN. induction (N.to_nat n) as [|m IH]; cbn [sum_upto]; [ring|]. rewrite IH. ring.
Qed.

Lemma sumN_scale_r n c f : sumN n (fun k => (f k * c)%Qc) = (sumN n f * c)%Qc.
Proof.
  unfold sumN. induction (N.to_nat n) as [|m IH]; cbn [sum_upto]; [ring|]. rewrite IH. ring.
Qed.

Lemma sumN_opp n f : sumN n (fun k => (- f k)%Qc) = (- sumN n f)%Qc.
Proof.
  unfold sumN. induction (N.to_nat n) as [|m IH]; cbn [sum_upto]; [ring|]. rewrite IH. ring.
Qed.

(* exchanging two finite sums *)
Lemma sum_upto_swap a m (f : N -> N -> Qc) :
  sum_upto a (fun i => sumN m (fun j => f i j)) = sumN m (fun j => sum_upto a (fun i => f i j)).
Proof.
  induction a as [|a IH]; cbn [sum_upto].
  - symmetry. apply sumN_zero. reflexivity.
  - rewrite IH. rewrite <- sumN_plus. reflexivity.
Qed.

Lemma sumN_swap n m (f : N -> N -> Qc) :
  sumN n (fun i => sumN m (fun j => f i j)) = sumN m (fun j => sumN n (fun i => f i j)).
Proof. unfold sumN at 1. rewrite sum_upto_swap. reflexivity. Qed.

(* a sum with a single non-zero term *)
Lemma sumN_single n f k0 :
  k0 < n -> (forall k, k < n -> k <> k0 -> f k = 0%Qc) -> sumN n f = f k0.
Proof.
  unfold sumN. intros Hk H.
  assert (forall m, (m <= N.to_nat n)%nat ->
            sum_upto m f = if N.of_nat m <=? k0 then 0%Qc else f k0) as G.
  { induction m as [|m IH]; intros Hm; cbn [sum_upto].
    - destruct (N.leb_spec (N.of_nat 0) k0); [reflexivity | lia].
    - rewrite IH by lia.
      destruct (N.leb_spec (N.of_nat m) k0), (N.leb_spec (N.of_nat (S m)) k0); try lia.
      + rewrite (H (N.of_nat m)) by lia. ring.
      + replace (N.of_nat m) with k0 by lia. ring.
      + rewrite (H (N.of_nat m)) by lia. ring. }
  rewrite G by lia. destruct (N.leb_spec (N.of_nat (N.to_nat n)) k0); [lia | reflexivity].
Qed.

(* splitting off the terms below a bound *)
Lemma sumN_split n m f : m <= n -> sumN n f = (sumN m f + sumN (n - m)%N (fun k => f (m + k)%N))%Qc.
Proof.
  intros H. replace n with (m + (n - m)) at 1 by lia. generalize (n - m) as d. clear H n.
  intros d. induction d as [|d IH] using N.peano_ind.
  - rewrite N.add_0_r, sumN_0. ring.
  - rewrite <- N.add_1_r. rewrite N.add_assoc. rewrite !sumN_succ. rewrite IH. ring.
Qed.

Definition fm := N -> N -> Qc.

(* equality on the r x c window *)
Definition fm_eq (r c : N) (A B : fm) : Prop := forall i j, i < r -> j < c -> A i j = B i j.

Definition fm_mul (n : N) (A B : fm) : fm := fun i j => sumN n (fun k => (A i k * B k j)%Qc).
Definition fm_id : fm := fun i j => if i =? j then 1%Qc else 0%Qc.
Definition fm_transpose (A : fm) : fm := fun i j => A j i.
Definition fm_add (A B : fm) : fm := fun i j => (A i j + B i j)%Qc.

(* associativity of the product: (A (r x n) * B (n x m)) * C (m x c) *)
Lemma fm_mul_assoc n m (A B C : fm) i j :
  fm_mul m (fm_mul n A B) C i j = fm_mul n A (fm_mul m B C) i j.
Proof.
  unfold fm_mul.
  transitivity (sumN m (fun k => sumN n (fun l => (A i l * B l k * C k j)%Qc))).
  - apply sumN_ext. intros k _. rewrite <- sumN_scale_r. reflexivity.
  - rewrite sumN_swap. apply sumN_ext. intros l _. rewrite <- sumN_scale.
    apply sumN_ext. intros k _. ring.
Qed.

Lemma fm_mul_id_l n (A : fm) i j : i < n -> fm_mul n fm_id A i j = A i j.
Proof.
  intros Hi. unfold fm_mul, fm_id. rewrite (sumN_single _ _ i Hi).
  - rewrite N.eqb_refl. ring.
  - intros k _ Hk. destruct (N.eqb_spec i k); [congruence | ring].
Qed.

Lemma fm_mul_id_r n (A : fm) i j : j < n -> fm_mul n A fm_id i j = A i j.
Proof.
  intros Hj. unfold fm_mul, fm_id. rewrite (sumN_single _ _ j Hj).
  - rewrite N.eqb_refl. ring.
  - intros k _ Hk. destruct (N.eqb_spec k j); [congruence | ring].
Qed.

Lemma fm_mul_ext n (A A' B B' : fm) i j :
  (forall k, k < n -> A i k = A' i k) -> (forall k, k < n -> B k j = B' k j) ->
  fm_mul n A B i j = fm_mul n A' B' i j.
Proof. intros H1 H2. unfold fm_mul. apply sumN_ext. intros k Hk. now rewrite H1, H2. Qed.

(* certificates: what the check validates on every explored output *)

(* a two-sided inverse is unique: any B with A*B = I equals the C with C*A = I *)
Theorem inverse_unique n (A B C : fm) :
  fm_eq n n (fm_mul n A B) fm_id -> fm_eq n n (fm_mul n C A) fm_id -> fm_eq n n B C.
Proof.
  intros HAB HCA i j Hi Hj.
  rewrite <- (fm_mul_id_l n B i j Hi).
  rewrite <- (fm_mul_id_r n C i j Hj).
  transitivity (fm_mul n (fm_mul n C A) B i j).
  - apply fm_mul_ext; intros k Hk; [symmetry; now apply HCA | reflexivity].
  - rewrite fm_mul_assoc. apply fm_mul_ext; intros k Hk; [reflexivity | now apply HAB].
Qed.

(* with a left inverse C of A, the system A x = b has at most one solution, namely C b
   (x, b: n x s) *)
Theorem solve_unique n s (A C x b : fm) :
  fm_eq n n (fm_mul n C A) fm_id -> fm_eq n s (fm_mul n A x) b -> fm_eq n s x (fm_mul n C b).
Proof.
  intros HCA HAx i j Hi Hj.
  rewrite <- (fm_mul_id_l n x i j Hi).
  transitivity (fm_mul n (fm_mul n C A) x i j).
  - apply fm_mul_ext; intros k Hk; [symmetry; now apply HCA | reflexivity].
  - rewrite fm_mul_assoc. apply fm_mul_ext; intros k Hk; [reflexivity | now apply HAx].
Qed.

Definition upper_tri (n : N) (U : fm) : Prop := forall i j, i < n -> j < i -> U i j = 0%Qc.
Definition lower_tri (n : N) (L : fm) : Prop := forall i j, i < n -> j < n -> i < j -> L i j = 0%Qc.
Definition unit_diag (n : N) (L : fm) : Prop := forall i, i < n -> L i i = 1%Qc.
Definition nonzero_diag (n : N) (U : fm) : Prop := forall i, i < n -> U i i <> 0%Qc.

Definition fm_swap (a b : N) (A : fm) : fm :=
  fun i j => if i =? a then A b j else if i =? b then A a j else A i j.
Definition fm_scale (a : N) (c : Qc) (A : fm) : fm :=
  fun i j => if i =? a then (c * A a j)%Qc else A i j.
Definition fm_addrow (a b : N) (c : Qc) (A : fm) : fm :=
  fun i j => if i =? a then (A a j + c * A b j)%Qc else A i j.

(* row equivalence of r x c matrices: generated by the three elementary operations *)
Inductive row_equiv (r c : N) : fm -> fm -> Prop :=
| re_refl A B : fm_eq r c A B -> row_equiv r c A B
| re_swap A a b : a < r -> b < r -> row_equiv r c A (fm_swap a b A)
| re_scale A a k : a < r -> k <> 0%Qc -> row_equiv r c A (fm_scale a k A)
| re_addrow A a b k : a < r -> b < r -> a <> b -> row_equiv r c A (fm_addrow a b k A)
| re_trans A B C : row_equiv r c A B -> row_equiv r c B C -> row_equiv r c A C.

(* x (c x s) solves A x = 0 *)
Definition null_sol (r c s : N) (A x : fm) : Prop := fm_eq r s (fm_mul c A x) (fun _ _ => 0%Qc).

(* pc: the pivot columns, strictly increasing; row k has its leading 1 in column pc[k] *)
Fixpoint increasing (l : list N) : Prop :=
  match l with
  | [] => True
  | a :: r => (match r with [] => True | b :: _ => a < b end) /\ increasing r
  end.

Definition nthN (l : list N) (k : N) : N := nth (N.to_nat k) l 0.

Definition is_rref (r c : N) (M : fm) (pc : list N) : Prop :=
  increasing pc /\ lenN pc <= r /\
  (forall k, k < lenN pc ->
     nthN pc k < c /\ M k (nthN pc k) = 1%Qc /\
     (forall j, j < nthN pc k -> M k j = 0%Qc) /\
     (forall i, i < r -> i <> k -> M i (nthN pc k) = 0%Qc)) /\
  (forall i j, lenN pc <= i -> i < r -> j < c -> M i j = 0%Qc).

(* cofactor expansion along the first row; minor0 j removes row 0 and column j *)
Definition minor0 (j : N) (A : fm) : fm := fun a b => A (a + 1) (if b <? j then b else b + 1).

Fixpoint altsum (n : nat) (f : N -> Qc) : Qc :=
  match n with
  | O => 0%Qc
  | S k => (altsum k f + (if N.even (N.of_nat k) then f (N.of_nat k) else - f (N.of_nat k)))%Qc
  end.

Fixpoint det (n : nat) (A : fm) : Qc :=
  match n with
  | O => 1%Qc
  | S m => altsum (S m) (fun j => (A 0%N j * det m (minor0 j A))%Qc)
  end.

Definition fm_of (M : dmat) : fm := val M.

(* "M is a well-formed r x c matrix of rational numbers" *)
Definition good (M : dmat) (r c : N) : Prop := wf M /\ fin_mat M /\ drow M = r /\ dcol M = c.

(* a well-formed matrix whose entries are the rationals F i j *)
Lemma good_of_entries M r c (F : fm) :
  wf M -> drow M = r -> dcol M = c ->
  (forall i j, i < r -> j < c -> entry M i j = Fin (F i j)) ->
  good M r c /\ fm_eq r c (fm_of M) F.
Proof.
  intros W Hr Hc HF. split.
  - split; [exact W|]. split; [|split; assumption].
    unfold wf in W. rewrite Hr, Hc in W. apply (fin_vec_of_ent (dm M) r c W).
    intros i j Hi Hj. rewrite <- Hc. fold (entry M i j). now rewrite HF.
  - intros i j Hi Hj. unfold fm_of, val. now rewrite HF.
Qed.
