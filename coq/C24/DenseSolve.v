(* C24 -- the triangular / diagonal solves and the solvers composed from them:
   back_substitution, forward_substitution (unit lower triangular), diagonal_solve,
   permute_fwd, LU_solve, pivoted_LU_solve, LDL_solve, inverse_LU, inverse_pivoted_LU.
   Total correctness on matrices of rational numbers, all sizes, any number of right-hand
   sides.  The composed solvers are stated relative to a correct factorisation. *)
From SE Require Import C24.DenseModel C24.DenseBase C24.DenseSpec C24.DenseOps C24.DenseOps2.
From Coq Require Import Lia ZifyBool ZifyNat ZifyN.
Local Open Scope N_scope.
Local Open Scope res_scope.

Lemma rd_good M r c i j :
  good M r c -> i < r -> j < c -> rd (dm M) (i * c + j) = Ok (Fin (fm_of M i j)).
Proof. intros G. exact (repr_rd _ _ _ _ (good_repr M r c G) i j). Qed.

(* sum of f j for a <= j < b *)
Definition sumR (a b : N) (f : N -> Qc) : Qc := sumN (b - a) (fun t => f (a + t)).

Lemma sumR_nil a f : sumR a a f = 0%Qc.
Proof. unfold sumR. now rewrite N.sub_diag. Qed.

Lemma sumR_succ a b f : a <= b -> sumR a (b + 1) f = (sumR a b f + f b)%Qc.
Proof.
  intros H. unfold sumR. replace (b + 1 - a) with (b - a + 1) by lia.
  rewrite sumN_succ. now replace (a + (b - a)) with b by lia.
Qed.

Lemma sumR_ext a b f g : (forall k, a <= k < b -> f k = g k) -> sumR a b f = sumR a b g.
Proof. intros H. unfold sumR. apply sumN_ext. intros k Hk. apply H. lia. Qed.

Lemma sumR_zero a b f : (forall k, a <= k < b -> f k = 0%Qc) -> sumR a b f = 0%Qc.
Proof. intros H. unfold sumR. apply sumN_zero. intros k Hk. apply H. lia. Qed.

Lemma sumN_around n r f : r < n -> sumN n f = (sumN r f + f r + sumR (r + 1) n f)%Qc.
Proof.
  intros H. rewrite (sumN_split n (r + 1) f) by lia. rewrite sumN_succ. reflexivity.
Qed.

(* row r of the triangular system, column c of the right-hand side with value v:
   U_rr x_rc + sum_{r < j < n} U_rj x_jc = v *)
Definition bs_row (n : N) (Uf X : fm) (r c : N) (v : Qc) : Prop :=
  (Uf r r * X r c + sumR (r + 1) n (fun j => Uf r j * X j c) = v)%Qc.

Lemma bs_row_ext n Uf X X' r c v :
  r < n -> (forall j, r <= j < n -> X j c = X' j c) -> bs_row n Uf X r c v -> bs_row n Uf X' r c v.
Proof.
  intros Hr H. unfold bs_row. intros <-. rewrite <- (H r) by lia. f_equal.
  apply sumR_ext. intros j Hj. now rewrite (H j) by lia.
Qed.

(* for an upper triangular U the row equations say U X = V *)
Lemma bs_rows_mul n s U X V :
  upper_tri n U -> (forall r c, r < n -> c < s -> bs_row n U X r c (V r c)) ->
  fm_eq n s (fm_mul n U X) V.
Proof.
  intros HT H r c Hr Hc. unfold fm_mul. rewrite (sumN_around n r) by assumption.
  rewrite sumN_zero by (intros j Hj; rewrite HT by assumption; ring).
  rewrite <- (H r c Hr Hc). unfold bs_row. ring.
Qed.

(* the loops of back_substitution, named *)
(* the j-loop: x_ik -= U_ij x_jk for i < j < n *)
Definition bs_inner_loop (U : dmat) (n s i k : N) (xm : list qx) : res (list qx) :=
  for_range (i + 1) n (fun j xm =>
    do xi <- rd xm (i * s + k);
    do u <- rd (dm U) (i * n + j);
    do xj <- rd xm (j * s + k);
    wr xm (i * s + k) (xsub xi (xmul u xj))) xm.

(* one column: rows n-1 down to 0 *)
Definition bs_col_loop (U : dmat) (n s k : N) (xm : list qx) : res (list qx) :=
  for_down (N.to_nat n) (fun i xm =>
    do xm <- bs_inner_loop U n s i k xm;
    do xi <- rd xm (i * s + k);
    do u <- rd (dm U) (i * n + i);
    wr xm (i * s + k) (xdiv xi u)) xm.

Lemma bs_inner U n s i k m X :
  good U n n -> repr m n s X -> i < n -> k < s ->
  exists m', bs_inner_loop U n s i k m = Ok m' /\
    repr m' n s (fm_set i k (X i k - sumR (i + 1) n (fun j => fm_of U i j * X j k))%Qc X).
Proof.
  intros GU HR Hi Hk. unfold bs_inner_loop.
  pose (F := fun t : N =>
    fm_set i k (X i k - sumR (i + 1) t (fun j => fm_of U i j * X j k))%Qc X).
  apply (repr_loop n s F X); [lia | exact HR | | | intros a b _ _; reflexivity].
  - intros a b _ _. unfold F, fm_set. rewrite sumR_nil. ffj_cases; try reflexivity. ring.
  - intros t m1 [Ht1 Ht2] HR1.
    rewrite (repr_rd m1 n s _ HR1 i k), (rd_good U n n i t), (repr_rd m1 n s _ HR1 t k)
      by assumption.
    cbn [bind]. rewrite xmul_fin, xsub_fin.
    apply (repr_wr m1 n s (F t)); try assumption.
    intros a b _ _. unfold F, fm_set. rewrite sumR_succ by lia. ffj_cases; try reflexivity. ring.
Qed.

(* one column: the entries of column k become the solution of the row equations whose
   right-hand sides they held *)
Lemma bs_col U n s k m X :
  good U n n -> nonzero_diag n (fm_of U) -> repr m n s X -> k < s ->
  exists m' X', bs_col_loop U n s k m = Ok m' /\ repr m' n s X' /\
    (forall r c, c <> k -> X' r c = X r c) /\
    (forall r, r < n -> bs_row n (fm_of U) X' r k (X r k)).
Proof.
  intros GU HD HR Hk.
  pose (Q := fun (t : N) (m' : list qx) => exists X', repr m' n s X' /\
    (forall r c, c <> k \/ r < t -> X' r c = X r c) /\
    (forall r, t <= r < n -> bs_row n (fm_of U) X' r k (X r k))).
  destruct (for_down_inv Q (N.to_nat n) (fun i xm =>
      do xm <- bs_inner_loop U n s i k xm;
      do xi <- rd xm (i * s + k);
      do u <- rd (dm U) (i * n + i);
      wr xm (i * s + k) (xdiv xi u)) m) as (m' & E & X' & HR' & Hsame & Hrows).
  - exists X. split; [exact HR|]. split; [reflexivity|]. intros r Hr. lia.
  - intros i m1 Hi (X1 & HR1 & Hsame & Hdone). rewrite N2Nat.id in Hi.
    destruct (bs_inner U n s i k m1 X1 GU HR1 Hi Hk) as (m2 & E2 & HR2).
    rewrite E2. cbn [bind].
    rewrite (repr_rd m2 n s _ HR2), (rd_good U n n i i) by assumption. cbn [bind].
    rewrite xdiv_fin by (now apply HD).
    set (S1 := sumR (i + 1) n (fun j => (fm_of U i j * X1 j k)%Qc)) in *.
    pose (X2 := fm_set i k ((X1 i k - S1) / fm_of U i i)%Qc X1).
    destruct (repr_wr m2 n s _ X2 i k (fm_set i k (X1 i k - S1) X1 i k / fm_of U i i)%Qc HR2 Hi Hk)
      as (m3 & E3 & HR3).
    { intros a b _ _. unfold X2, fm_set. ffj_cases; reflexivity. }
    exists m3. split; [exact E3|]. exists X2. split; [exact HR3|].
    assert (Hup : forall r c, r <> i \/ c <> k -> X2 r c = X1 r c).
    { intros r c Hrc. unfold X2, fm_set. ffj_cases; reflexivity. }
    split.
    + intros r c Hrc. rewrite Hup by lia. apply Hsame. lia.
    + intros r Hr. destruct (N.eq_dec r i) as [->|Hne].
      * unfold bs_row.
        rewrite (sumR_ext _ _ _ (fun j => (fm_of U i j * X1 j k)%Qc))
          by (intros j Hj; rewrite Hup by lia; reflexivity).
        fold S1. unfold X2, fm_set. rewrite !N.eqb_refl. cbn [andb].
        rewrite <- (Hsame i k) by lia. field. now apply HD.
      * apply bs_row_ext with (X := X1); [lia | | apply Hdone; lia].
        intros j Hj. symmetry. apply Hup. lia.
  - exists m', X'. split; [exact E|]. split; [exact HR'|]. split.
    + intros r c Hc. apply Hsame. now left.
    + intros r Hr. apply Hrows. lia.
Qed.

(* back_substitution, without any shape assumption on U: every row equation of the
   "upper triangular part" of U holds *)
Theorem back_substitution_rows U b x n s :
  good U n n -> good b n s -> drow x = n -> dcol x = s ->
  nonzero_diag n (fm_of U) ->
  exists x', back_substitution U b x = Ok x' /\ good x' n s /\
    forall r c, r < n -> c < s -> bs_row n (fm_of U) (fm_of x') r c (fm_of b r c).
Proof.
  intros GU Gb Hxr Hxc HD.
  pose proof GU as (_ & _ & _ & HcU). pose proof Gb as (_ & _ & _ & Hcb).
  unfold back_substitution. cbv zeta. rewrite HcU, Hcb.
  pose (P := fun (k : N) (m : list qx) => exists X, repr m n s X /\
    (forall r c, r < n -> c < k -> bs_row n (fm_of U) X r c (fm_of b r c)) /\
    (forall r c, k <= c -> X r c = fm_of b r c)).
  apply (bind_ex _ _ (P s)); [apply (for_range_inv P); [lia | |]|].
  - exists (fm_of b). split; [now apply good_repr|]. split; [intros; lia | reflexivity].
  - intros k m [_ Hk] (X & HR & Hdone & Hrest).
    destruct (bs_col U n s k m X GU HD HR Hk) as (m2 & X2 & E2 & HR2 & Hoc & Hrows).
    exists m2. split; [exact E2|]. exists X2. split; [exact HR2|]. split.
    + intros r c Hr Hc. destruct (N.eq_dec c k) as [->|Hne].
      * rewrite <- (Hrest r k) by lia. now apply Hrows.
      * apply bs_row_ext with (X := X); [assumption | | apply Hdone; lia].
        intros j Hj. symmetry. now apply Hoc.
    + intros r c Hc. rewrite Hoc by lia. apply Hrest. lia.
  - intros m' (X & HR & Hrows & _). eexists; split; [reflexivity|].
    destruct (repr_good m' n s X x HR Hxr Hxc) as [HG HF]. split; [exact HG|].
    intros r c Hr Hc. apply bs_row_ext with (X := X); [assumption | | now apply Hrows].
    intros j Hj. apply HF; lia.
Qed.

Theorem back_substitution_spec U b x n s :
  good U n n -> good b n s -> drow x = n -> dcol x = s ->
  upper_tri n (fm_of U) -> nonzero_diag n (fm_of U) ->
  exists x', back_substitution U b x = Ok x' /\ good x' n s /\
    fm_eq n s (fm_mul n (fm_of U) (fm_of x')) (fm_of b).
Proof.
  intros GU Gb Hxr Hxc HT HD.
  destruct (back_substitution_rows U b x n s GU Gb Hxr Hxc HD) as (x' & E & Gx & Hrows).
  exists x'. split; [exact E|]. split; [exact Gx|]. now apply bs_rows_mul.
Qed.

(* one cell of the fraction-free forward elimination with a unit diagonal:
   x_jk := (L_ii x_jk - L_ji x_ik) / L_{i-1,i-1} = x_jk - L_ji x_ik *)
Definition fs_cell_step (L : dmat) (n s i k j : N) (t : list qx) : res (list qx) :=
  do aii <- rd (dm L) (i * n + i);
  do xj <- rd t (j * s + k);
  do aji <- rd (dm L) (j * n + i);
  do xi <- rd t (i * s + k);
  do xm <- wr t (j * s + k) (xsub (xmul aii xj) (xmul aji xi));
  if 0 <? i then
    do v <- rd xm (j * s + k);
    do d <- rd (dm L) ((i - 1) * n + i - 1);
    wr xm (j * s + k) (xdiv v d)
  else Ok xm.

(* the j-loop of stage i, and the stages i = 0 .. n-2 of one column *)
Definition fs_inner_loop (L : dmat) (n s i k : N) (xm : list qx) : res (list qx) :=
  for_range (i + 1) n (fs_cell_step L n s i k) xm.
Definition fs_col_loop (L : dmat) (n s k : N) (xm : list qx) : res (list qx) :=
  for_range 0 (n - 1) (fun i xm => fs_inner_loop L n s i k xm) xm.

Lemma fs_cell L n s i j k t X :
  good L n n -> unit_diag n (fm_of L) -> repr t n s X -> i < j -> j < n -> k < s ->
  exists t', fs_cell_step L n s i k j t = Ok t' /\
    repr t' n s (fm_set j k (X j k - fm_of L j i * X i k)%Qc X).
Proof.
  intros GL HU HR Hij Hj Hk. unfold unit_diag in HU. unfold fs_cell_step.
  assert (Hi : i < n) by lia.
  rewrite (rd_good L n n i i), (repr_rd t n s X HR j k), (rd_good L n n j i),
    (repr_rd t n s X HR i k) by assumption.
  cbn [bind]. rewrite !xmul_fin, xsub_fin, (HU i Hi).
  destruct (repr_wr t n s X _ j k (1 * X j k - fm_of L j i * X i k)%Qc HR Hj Hk
              (fun _ _ _ _ => eq_refl)) as (t2 & E2 & HR2).
  rewrite E2. cbn [bind].
  destruct (N.ltb_spec 0 i) as [Hpos|Hz].
  - rewrite (repr_rd t2 n s _ HR2) by assumption. cbn [bind].
    replace ((i - 1) * n + i - 1) with ((i - 1) * n + (i - 1))
      by (apply N.add_sub_assoc; lia).
    rewrite (rd_good L n n (i - 1) (i - 1)) by (assumption || lia). cbn [bind].
    rewrite (HU (i - 1)) by lia. rewrite xdiv_fin by apply Q_apart_0_1.
    apply (repr_wr t2 n s _ _ j k _ HR2 Hj Hk).
    intros a b _ _. unfold fm_set. ffj_cases; try reflexivity. field. apply Q_apart_0_1.
  - exists t2. split; [reflexivity|]. apply (repr_ext _ _ _ _ _ HR2).
    intros a b _ _. unfold fm_set. ffj_cases; try reflexivity. ring.
Qed.

(* the j-loop of stage i: rows below i get x_j -= L_ji x_i *)
Lemma fs_inner L n s i k m X :
  good L n n -> unit_diag n (fm_of L) -> repr m n s X -> i < n -> k < s ->
  exists m', fs_inner_loop L n s i k m = Ok m' /\
    repr m' n s (fun a b => if (i <? a) && (b =? k)
                            then (X a k - fm_of L a i * X i k)%Qc else X a b).
Proof.
  intros GL HU HR Hi Hk. unfold fs_inner_loop.
  pose (F := fun (t a b : N) =>
    if (i <? a) && (a <? t) && (b =? k) then (X a k - fm_of L a i * X i k)%Qc else X a b).
  apply (repr_loop n s F X); [lia | exact HR | | |].
  - intros a b _ _. unfold F. ffj_cases; reflexivity.
  - intros t m1 [Ht1 Ht2] HR1.
    destruct (fs_cell L n s i t k m1 (F t) GL HU HR1 ltac:(lia) Ht2 Hk) as (m2 & E2 & HR2).
    exists m2. split; [exact E2|]. apply (repr_ext _ _ _ _ _ HR2).
    intros a b _ _. unfold fm_set, F. ffj_cases; reflexivity.
  - intros a b Ha _. unfold F. ffj_cases; reflexivity.
Qed.

(* one column: the entries of column k become the solution of the row equations (with unit
   diagonal) whose right-hand sides they held *)
Lemma fs_col L n s k m X :
  good L n n -> unit_diag n (fm_of L) -> repr m n s X -> 0 < n -> k < s ->
  exists m' X', fs_col_loop L n s k m = Ok m' /\ repr m' n s X' /\
    (forall r c, c <> k -> X' r c = X r c) /\
    (forall r, r < n -> (X' r k + sumN r (fun t => fm_of L r t * X' t k) = X r k)%Qc).
Proof.
  intros GL HU HR Hn Hk.
  pose (Q := fun (i : N) (m' : list qx) => exists X', repr m' n s X' /\
    (forall r c, c <> k -> X' r c = X r c) /\
    (forall r, r < n ->
       X' r k = (X r k - sumN (N.min r i) (fun t => fm_of L r t * X' t k))%Qc)).
  destruct (for_range_inv Q 0 (n - 1) (fun i xm => fs_inner_loop L n s i k xm) m)
    as (m' & E & X' & HR' & Hoc & Hrows).
  - lia.
  - exists X. split; [exact HR|]. split; [reflexivity|].
    intros r Hr. rewrite N.min_0_r, sumN_0. ring.
  - intros i m1 [_ Hi] (X1 & HR1 & Hoc & Hrows).
    destruct (fs_inner L n s i k m1 X1 GL HU HR1 ltac:(lia) Hk) as (m2 & E2 & HR2).
    exists m2. split; [exact E2|]. eexists. split; [exact HR2|]. cbv beta. split.
    + intros r c Hc. destruct (N.eqb_spec c k); [contradiction|]. rewrite andb_false_r. now apply Hoc.
    + intros r Hr. rewrite N.eqb_refl, andb_true_r.
      rewrite (sumN_ext _ _ (fun t => (fm_of L r t * X1 t k)%Qc)).
      2:{ intros t Ht. destruct (N.ltb_spec i t); [lia | reflexivity]. }
      destruct (N.ltb_spec i r) as [Hri|Hri].
      * rewrite (Hrows r Hr). replace (N.min r i) with i by lia.
        replace (N.min r (i + 1)) with (i + 1) by lia. rewrite sumN_succ. ring.
      * rewrite (Hrows r Hr). now replace (N.min r (i + 1)) with (N.min r i) by lia.
  - exists m', X'. split; [exact E|]. split; [exact HR'|]. split; [exact Hoc|].
    intros r Hr. pose proof (Hrows r Hr) as Hq. replace (N.min r (n - 1)) with r in Hq by lia.
    rewrite Hq at 1. ring.
Qed.

(* forward_substitution with a unit diagonal, without any shape assumption on L: every row
   equation of the "lower triangular part" of L holds *)
Theorem forward_substitution_rows L b x n s :
  good L n n -> good b n s -> drow x = n -> dcol x = s -> 0 < n ->
  unit_diag n (fm_of L) ->
  exists y, forward_substitution L b x = Ok y /\ good y n s /\
    forall r c, r < n -> c < s ->
      (fm_of y r c + sumN r (fun t => fm_of L r t * fm_of y t c) = fm_of b r c)%Qc.
Proof.
  intros GL Gb Hxr Hxc Hn HU.
  pose proof GL as (_ & _ & _ & HcL). pose proof Gb as (_ & _ & _ & Hcb).
  unfold forward_substitution. cbv zeta. rewrite HcL, Hcb.
  destruct (N.eqb_spec n 0) as [Hz|_]; [lia|].
  pose (P := fun (k : N) (m : list qx) => exists X, repr m n s X /\
    (forall r c, r < n -> c < k ->
       (X r c + sumN r (fun t => fm_of L r t * X t c) = fm_of b r c)%Qc) /\
    (forall r c, k <= c -> X r c = fm_of b r c)).
  apply (bind_ex _ _ (P s)); [apply (for_range_inv P); [lia | |]|].
  - exists (fm_of b). split; [now apply good_repr|]. split; [intros; lia | reflexivity].
  - intros k m [_ Hk] (X & HR & Hdone & Hrest).
    destruct (fs_col L n s k m X GL HU HR Hn Hk) as (m2 & X2 & E2 & HR2 & Hoc & Hrows).
    exists m2. split; [exact E2|]. exists X2. split; [exact HR2|]. split.
    + intros r c Hr Hc. destruct (N.eq_dec c k) as [->|Hne].
      * rewrite (Hrows r Hr). apply Hrest. lia.
      * rewrite <- (Hdone r c) by lia. rewrite Hoc by assumption. f_equal.
        apply sumN_ext. intros t Ht. now rewrite Hoc.
    + intros r c Hc. rewrite Hoc by lia. apply Hrest. lia.
  - intros m' (X & HR & Hrows & _). eexists; split; [reflexivity|].
    destruct (repr_good m' n s X x HR Hxr Hxc) as [HG HF]. split; [exact HG|].
    intros r c Hr Hc. rewrite <- (Hrows r c Hr Hc), <- HF by assumption. f_equal.
    apply sumN_ext. intros t Ht. rewrite HF by lia. reflexivity.
Qed.

Theorem forward_substitution_spec L b x n s :
  good L n n -> good b n s -> drow x = n -> dcol x = s -> 0 < n ->
  lower_tri n (fm_of L) -> unit_diag n (fm_of L) ->
  exists y, forward_substitution L b x = Ok y /\ good y n s /\
    fm_eq n s (fm_mul n (fm_of L) (fm_of y)) (fm_of b).
Proof.
  intros GL Gb Hxr Hxc Hn HT HU.
  destruct (forward_substitution_rows L b x n s GL Gb Hxr Hxc Hn HU) as (y & E & Gy & Hrows).
  exists y. split; [exact E|]. split; [exact Gy|].
  intros r c Hr Hc. unfold fm_mul. rewrite (sumN_around n r) by assumption.
  rewrite sumR_zero by (intros j Hj; rewrite HT by lia; ring).
  rewrite (HU r Hr). rewrite <- (Hrows r c Hr Hc). ring.
Qed.

(* the loop of diagonal_solve (and the last loop of fraction_free_gauss_jordan_solve):
   x_ik := b_ik / a_ii *)
Definition diag_div_loop (n s : N) (am bm xm : list qx) : res (list qx) :=
  for_range 0 s (fun k xm =>
    for_range 0 n (fun i xm =>
      do bb <- rd bm (i * s + k);
      do a <- rd am (i * n + i);
      wr xm (i * s + k) (xdiv bb a)) xm) xm.

Lemma diag_div_spec am bm xm n s MA MB :
  repr am n n MA -> repr bm n s MB -> lenN xm = n * s -> nonzero_diag n MA ->
  exists xm', diag_div_loop n s am bm xm = Ok xm' /\
    repr xm' n s (fun a b => (MB a b / MA a a)%Qc).
Proof.
  intros HRa HRb HLx HD. unfold diag_div_loop.
  destruct (fill2 s n
              (fun k i xm => do bb <- rd bm (i * s + k); do a <- rd am (i * n + i);
                             wr xm (i * s + k) (xdiv bb a))
              (fun k i => i * s + k) (fun k i => Fin (MB i k / MA i i)%Qc) (n * s) xm)
    as (c' & E & HL & Hv & _).
  - exact HLx.
  - intros k i c Hk Hi _.
    rewrite (repr_rd bm n s MB HRb), (repr_rd am n n MA HRa) by assumption. cbn [bind].
    rewrite xdiv_fin by (now apply HD). reflexivity.
  - intros k i Hk Hi. apply idx_lt; assumption.
  - intros k i k' i' Hk Hi Hk' Hi' Eq. apply idx_inj in Eq; [|assumption|assumption].
    destruct Eq; split; congruence.
  - exists c'. split; [exact E|]. split; [assumption|].
    intros a b Ha Hb. unfold ent. apply (Hv b a Hb Ha).
Qed.

Theorem diagonal_solve_entries D b x n s :
  good D n n -> good b n s -> wf x -> drow x = n -> dcol x = s ->
  nonzero_diag n (fm_of D) ->
  exists x', diagonal_solve D b x = Ok x' /\ good x' n s /\
    forall i k, i < n -> k < s -> fm_of x' i k = (fm_of b i k / fm_of D i i)%Qc.
Proof.
  intros GD Gb Wx Hxr Hxc HD.
  pose proof GD as (_ & _ & _ & HcD). pose proof Gb as (_ & _ & _ & Hcb).
  unfold diagonal_solve. cbv zeta. rewrite HcD, Hcb. fold (diag_div_loop n s (dm D) (dm b) (dm x)).
  destruct (diag_div_spec (dm D) (dm b) (dm x) n s _ _ (good_repr D n n GD) (good_repr b n s Gb))
    as (xm & E & HR); [unfold wf in Wx; now rewrite Wx, Hxr, Hxc | exact HD |].
  rewrite E. cbn [bind]. eexists; split; [reflexivity|].
  destruct (repr_good xm n s _ x HR Hxr Hxc) as [HG HF]. split; [exact HG|].
  intros i k Hi Hk. symmetry. now apply HF.
Qed.

Theorem diagonal_solve_spec D b x n s :
  good D n n -> good b n s -> wf x -> drow x = n -> dcol x = s ->
  lower_tri n (fm_of D) -> upper_tri n (fm_of D) -> nonzero_diag n (fm_of D) ->
  exists x', diagonal_solve D b x = Ok x' /\ good x' n s /\
    fm_eq n s (fm_mul n (fm_of D) (fm_of x')) (fm_of b).
Proof.
  intros GD Gb Wx Hxr Hxc HLo HUp HD.
  destruct (diagonal_solve_entries D b x n s GD Gb Wx Hxr Hxc HD) as (x' & E & Gx & Hv).
  exists x'. split; [exact E|]. split; [exact Gx|].
  intros i k Hi Hk. unfold fm_mul. rewrite (sumN_single n _ i Hi).
  - rewrite Hv by assumption. field. now apply HD.
  - intros t Ht Hne. destruct (N.lt_gt_cases t i) as [H _]. destruct (H Hne) as [Hlt|Hgt].
    + rewrite HUp by assumption. ring.
    + rewrite HLo by assumption. ring.
Qed.

Lemma fm_eq_sym r c A B : fm_eq r c A B -> fm_eq r c B A.
Proof. intros H i j Hi Hj. symmetry. now apply H. Qed.

Lemma fm_eq_trans r c A B C : fm_eq r c A B -> fm_eq r c B C -> fm_eq r c A C.
Proof. intros H1 H2 i j Hi Hj. rewrite H1 by assumption. now apply H2. Qed.

Lemma fm_mul_eq_l n r c A A' B : fm_eq r n A A' -> fm_eq r c (fm_mul n A B) (fm_mul n A' B).
Proof. intros H i j Hi Hj. apply fm_mul_ext; intros k Hk; [now apply H | reflexivity]. Qed.

Lemma fm_mul_eq_r n r c A B B' : fm_eq n c B B' -> fm_eq r c (fm_mul n A B) (fm_mul n A B').
Proof. intros H i j Hi Hj. apply fm_mul_ext; intros k Hk; [reflexivity | now apply H]. Qed.

(* solving A x = b through a factorisation A = L U: first L y = b, then U x = y *)
Lemma fm_mul_chain n s (A L U x y b : fm) :
  fm_eq n n (fm_mul n L U) A -> fm_eq n s (fm_mul n L y) b -> fm_eq n s (fm_mul n U x) y ->
  fm_eq n s (fm_mul n A x) b.
Proof.
  intros HLU HLy HUx i j Hi Hj. rewrite <- (HLy i j Hi Hj).
  rewrite (fm_mul_eq_l n n s _ _ x (fm_eq_sym _ _ _ _ HLU) i j Hi Hj).
  rewrite fm_mul_assoc. exact (fm_mul_eq_r n n s _ _ _ HUx i j Hi Hj).
Qed.

(* relative to a correct factorisation A = L U *)
Theorem LU_solve_correct A b x L U n s :
  good A n n -> good b n s -> drow x = n -> dcol x = s -> 0 < n ->
  LU A (mzero n n) (mzero n n) = Ok (L, U) ->
  good L n n -> good U n n ->
  lower_tri n (fm_of L) -> unit_diag n (fm_of L) ->
  upper_tri n (fm_of U) -> nonzero_diag n (fm_of U) ->
  fm_eq n n (fm_mul n (fm_of L) (fm_of U)) (fm_of A) ->
  exists x', LU_solve A b x = Ok x' /\ good x' n s /\
    fm_eq n s (fm_mul n (fm_of A) (fm_of x')) (fm_of b).
Proof.
  intros GA Gb Hxr Hxc Hn ELU GL GU HLt HLu HUt HUd HLU.
  pose proof GA as (_ & _ & HrA & HcA). pose proof Gb as (_ & _ & Hrb & Hcb).
  unfold LU_solve. rewrite HrA, HcA, ELU. cbn [bind]. cbv beta iota.
  destruct (forward_substitution_spec L b (mzero (drow b) (dcol b)) n s GL Gb Hrb Hcb Hn HLt HLu)
    as (y & Ey & Gy & HLy).
  rewrite Ey. cbn [bind].
  destruct (back_substitution_spec U y x n s GU Gy Hxr Hxc HUt HUd) as (x' & Ex & Gx & HUx).
  exists x'. split; [exact Ex|]. split; [exact Gx|].
  exact (fm_mul_chain n s _ _ _ _ _ _ HLU HLy HUx).
Qed.

(* the effect of a list of row exchanges, applied first to last *)
Definition apply_perm (pl : list (N * N)) (A : fm) : fm :=
  fold_left (fun A p => fm_swap (fst p) (snd p) A) pl A.

(* every exchange is between two different rows of an n-row matrix *)
Definition perm_ok (n : N) (pl : list (N * N)) : Prop :=
  Forall (fun p => fst p < n /\ snd p < n /\ fst p <> snd p) pl.

Definition sw (a b i : N) : N := if i =? a then b else if i =? b then a else i.

(* row i of [apply_perm pl A] is row [pidx pl i] of A *)
Fixpoint pidx (pl : list (N * N)) (i : N) : N :=
  match pl with
  | [] => i
  | p :: r => sw (fst p) (snd p) (pidx r i)
  end.
Fixpoint pinv (pl : list (N * N)) (i : N) : N :=
  match pl with
  | [] => i
  | p :: r => pinv r (sw (fst p) (snd p) i)
  end.

Lemma fm_swap_sw a b (A : fm) i j : fm_swap a b A i j = A (sw a b i) j.
Proof. unfold fm_swap, sw. destruct (i =? a); [reflexivity|]. destruct (i =? b); reflexivity. Qed.

Lemma apply_perm_cons p r A :
  apply_perm (p :: r) A = apply_perm r (fm_swap (fst p) (snd p) A).
Proof. reflexivity. Qed.

Lemma apply_perm_idx pl : forall (A : fm) i j, apply_perm pl A i j = A (pidx pl i) j.
Proof.
  induction pl as [|p r IH]; intros A i j; [reflexivity|].
  rewrite apply_perm_cons, IH, fm_swap_sw. reflexivity.
Qed.

Lemma sw_lt n a b i : a < n -> b < n -> i < n -> sw a b i < n.
Proof. intros. unfold sw. destruct (i =? a); [assumption|]. destruct (i =? b); assumption. Qed.

Lemma sw_invol a b i : sw a b (sw a b i) = i.
Proof.
  unfold sw.
  destruct (N.eqb_spec i a), (N.eqb_spec i b); subst;
    repeat match goal with |- context [?u =? ?v] => destruct (N.eqb_spec u v) end; congruence.
Qed.

Lemma pidx_lt n pl i : perm_ok n pl -> i < n -> pidx pl i < n.
Proof.
  intros H Hi. induction H as [|p r (Ha & Hb & _) _ IH]; cbn [pidx]; [assumption|].
  now apply sw_lt.
Qed.

Lemma pinv_lt n pl : perm_ok n pl -> forall i, i < n -> pinv pl i < n.
Proof.
  intros H. induction H as [|p r (Ha & Hb & _) _ IH]; intros i Hi; cbn [pinv]; [assumption|].
  apply IH. now apply sw_lt.
Qed.

Lemma pidx_pinv pl : forall i, pidx pl (pinv pl i) = i.
Proof.
  induction pl as [|p r IH]; intros i; cbn [pidx pinv]; [reflexivity|].
  rewrite IH. apply sw_invol.
Qed.

(* row exchanges commute with a product on the right *)
Lemma apply_perm_mul n pl (A X : fm) i j :
  apply_perm pl (fm_mul n A X) i j = fm_mul n (apply_perm pl A) X i j.
Proof.
  rewrite apply_perm_idx. unfold fm_mul. apply sumN_ext. intros k _.
  now rewrite apply_perm_idx.
Qed.

(* a row permutation can be undone *)
Lemma apply_perm_inj n s pl (X Y : fm) :
  perm_ok n pl -> fm_eq n s (apply_perm pl X) (apply_perm pl Y) -> fm_eq n s X Y.
Proof.
  intros Hp H i j Hi Hj.
  specialize (H (pinv pl i) j (pinv_lt n pl Hp i Hi) Hj).
  rewrite !apply_perm_idx, pidx_pinv in H. exact H.
Qed.

(* permuteFwd on a row-major vector *)
Theorem permute_fwd_spec pl : forall m row col,
  good_vec m row col -> perm_ok row pl ->
  exists m', permute_fwd m col pl = Ok m' /\ good_vec m' row col /\
    forall r k, r < row -> k < col -> ent m' col r k = ent m col (pidx pl r) k.
Proof.
  induction pl as [|[a b] rest IH]; intros m row col Gm Hp.
  - exists m. split; [reflexivity|]. split; [assumption|]. reflexivity.
  - inversion Hp as [|p r (Ha & Hb & Hab) Hrest]; subst. cbn [fst snd] in *.
    destruct (row_exchange_spec m row col a b Gm Ha Hb Hab) as (m1 & E1 & G1 & Hv1).
    destruct (IH m1 row col G1 Hrest) as (m' & E' & G' & Hv').
    exists m'. split; [|split; [assumption|]].
    + cbn [permute_fwd]. rewrite E1. exact E'.
    + intros r k Hr Hk. rewrite Hv' by assumption.
      rewrite Hv1 by (try assumption; now apply (pidx_lt row)).
      cbn [pidx fst snd]. unfold sw.
      destruct (pidx rest r =? a); [reflexivity|]. destruct (pidx rest r =? b); reflexivity.
Qed.

(* in terms of rational values: the rows of b are exchanged as [apply_perm] says *)
Corollary permute_fwd_good b n s pl :
  good b n s -> perm_ok n pl ->
  exists xm, permute_fwd (dm b) (dcol b) pl = Ok xm /\ good (setm b xm) n s /\
    fm_eq n s (fm_of (setm b xm)) (apply_perm pl (fm_of b)).
Proof.
  intros (Wb & Fb & Hrb & Hcb) Hp.
  destruct (permute_fwd_spec pl (dm b) n s) as (xm & E & G & Hv);
    [unfold wf in Wb; now rewrite Hrb, Hcb in Wb | exact Hp |].
  rewrite Hcb. exists xm. split; [exact E|].
  apply (good_of_entries (setm b xm) n s); [|exact Hrb | exact Hcb |].
  - unfold wf, setm. cbn [dm drow dcol]. now rewrite Hrb, Hcb.
  - intros r c Hr Hc. rewrite apply_perm_idx. unfold fm_of.
    rewrite <- (fin_entry b (pidx pl r) c Wb Fb)
      by (rewrite ?Hrb, ?Hcb; (assumption || now apply (pidx_lt n))).
    unfold entry, setm. cbn [dm dcol]. rewrite Hcb. now apply Hv.
Qed.

(* relative to a correct factorisation P A = L U, P the recorded row exchanges *)
Theorem pivoted_LU_solve_correct A b x L U pl n s :
  good A n n -> good b n s -> drow x = n -> dcol x = s -> 0 < n ->
  pivoted_LU A (mzero n n) (mzero n n) [] = Ok (L, U, pl) ->
  good L n n -> good U n n -> perm_ok n pl ->
  lower_tri n (fm_of L) -> unit_diag n (fm_of L) ->
  upper_tri n (fm_of U) -> nonzero_diag n (fm_of U) ->
  fm_eq n n (fm_mul n (fm_of L) (fm_of U)) (apply_perm pl (fm_of A)) ->
  exists x', pivoted_LU_solve A b x = Ok x' /\ good x' n s /\
    fm_eq n s (fm_mul n (fm_of A) (fm_of x')) (fm_of b).
Proof.
  intros GA Gb Hxr Hxc Hn ELU GL GU Hp HLt HLu HUt HUd HLU.
  pose proof GA as (_ & _ & HrA & HcA).
  unfold pivoted_LU_solve. rewrite HrA, HcA, ELU. cbn [bind]. cbv beta iota.
  destruct (permute_fwd_good b n s pl Gb Hp) as (xm & Ep & Gb' & Hb').
  rewrite Ep. cbn [bind].
  pose proof Gb' as (_ & _ & Hrb' & Hcb').
  destruct (forward_substitution_spec L (setm b xm) (setm b xm) n s GL Gb' Hrb' Hcb' Hn HLt HLu)
    as (y & Ey & Gy & HLy).
  rewrite Ey. cbn [bind].
  destruct (back_substitution_spec U y x n s GU Gy Hxr Hxc HUt HUd) as (x' & Ex & Gx & HUx).
  exists x'. split; [exact Ex|]. split; [exact Gx|].
  apply (apply_perm_inj n s pl); [exact Hp|].
  intros i j Hi Hj. rewrite apply_perm_mul. rewrite <- (Hb' i j Hi Hj).
  exact (fm_mul_chain n s _ _ _ _ _ _ HLU HLy HUx i j Hi Hj).
Qed.

(* the transpose of a matrix of rationals *)
Lemma transpose_dense_good L D n :
  good L n n -> good D n n ->
  exists Lt, transpose_dense L D = Ok Lt /\ good Lt n n /\
    fm_eq n n (fm_of Lt) (fm_transpose (fm_of L)).
Proof.
  intros (WL & FL & HrL & HcL) (WD & _ & HrD & HcD).
  destruct (transpose_dense_spec L D WL WD) as (Lt & E & WLt & Hr & Hc & Hv);
    [congruence | congruence |].
  rewrite HcL in Hr. rewrite HrL in Hc. rewrite HcL, HrL in Hv.
  exists Lt. split; [exact E|]. apply (good_of_entries Lt n n _ WLt Hr Hc).
  intros i j Hi Hj. rewrite Hv by assumption. apply (fin_entry L j i); (assumption || lia).
Qed.

(* relative to a correct factorisation A = L D L^T of a matrix that passed the symmetry test *)
Theorem LDL_solve_correct A b x L D n s :
  good A n n -> good b n s -> drow x = n -> dcol x = s -> 0 < n ->
  is_symmetric_dense A = Ok true ->
  LDL A (mzero n n) (mzero n n) = Ok (L, D) ->
  good L n n -> good D n n ->
  lower_tri n (fm_of L) -> unit_diag n (fm_of L) ->
  lower_tri n (fm_of D) -> upper_tri n (fm_of D) -> nonzero_diag n (fm_of D) ->
  fm_eq n n (fm_mul n (fm_of L) (fm_mul n (fm_of D) (fm_transpose (fm_of L)))) (fm_of A) ->
  exists x', LDL_solve A b x = Ok x' /\ good x' n s /\
    fm_eq n s (fm_mul n (fm_of A) (fm_of x')) (fm_of b).
Proof.
  intros GA Gb Hxr Hxc Hn Hsym ELDL GL GD HLt HLu HDl HDu HDd HA.
  pose proof GA as (_ & _ & HrA & HcA). pose proof Gb as (_ & _ & Hrb & Hcb).
  unfold LDL_solve. rewrite HrA, HcA, Hsym. cbn [bind negb]. rewrite ELDL. cbn [bind]. cbv beta iota.
  destruct (forward_substitution_spec L b x n s GL Gb Hxr Hxc Hn HLt HLu) as (y & Ey & Gy & HLy).
  rewrite Ey. cbn [bind].
  destruct (diagonal_solve_spec D y (mzero (drow b) (dcol b)) n s GD Gy (wf_mzero _ _) Hrb Hcb
              HDl HDu HDd) as (z & Ez & Gz & HDz).
  rewrite Ez. cbn [bind].
  destruct (transpose_dense_good L D n GL GD) as (Lt & Et & GLt & HLtv).
  rewrite Et. cbn [bind].
  pose proof Gy as (_ & _ & Hry & Hcy).
  assert (HUt : upper_tri n (fm_of Lt)).
  { intros i j Hi Hj. rewrite HLtv by lia. unfold fm_transpose. apply HLt; lia. }
  assert (HUd : nonzero_diag n (fm_of Lt)).
  { intros i Hi. rewrite HLtv by lia. unfold fm_transpose. rewrite (HLu i Hi). apply Q_apart_0_1. }
  destruct (back_substitution_spec Lt z y n s GLt Gz Hry Hcy HUt HUd) as (x' & Ex & Gx & HUx).
  exists x'. split; [exact Ex|]. split; [exact Gx|].
  assert (H1 : fm_eq n s (fm_mul n (fm_transpose (fm_of L)) (fm_of x')) (fm_of z)).
  { apply fm_eq_trans with (fm_mul n (fm_of Lt) (fm_of x')); [|exact HUx].
    apply fm_mul_eq_l. now apply fm_eq_sym. }
  apply (fm_mul_chain n s _ _ _ _ _ _ HA HLy).
  exact (fm_mul_chain n s _ _ _ _ _ _ (fun _ _ _ _ => eq_refl) HDz H1).
Qed.

Lemma eye_mzero_spec n :
  exists e, eye (mzero n n) = Ok e /\ good e n n /\ fm_eq n n (fm_of e) fm_id.
Proof. exact (eye_mzero n). Qed.

Theorem inverse_LU_correct A B L U n :
  good A n n -> drow B = n -> dcol B = n -> 0 < n ->
  LU A (mzero n n) (mzero n n) = Ok (L, U) ->
  good L n n -> good U n n ->
  lower_tri n (fm_of L) -> unit_diag n (fm_of L) ->
  upper_tri n (fm_of U) -> nonzero_diag n (fm_of U) ->
  fm_eq n n (fm_mul n (fm_of L) (fm_of U)) (fm_of A) ->
  exists B', inverse_LU A B = Ok B' /\ good B' n n /\
    fm_eq n n (fm_mul n (fm_of A) (fm_of B')) fm_id.
Proof.
  intros GA HBr HBc Hn ELU GL GU HLt HLu HUt HUd HLU.
  pose proof GA as (_ & _ & HrA & HcA).
  unfold inverse_LU. rewrite HrA, HcA.
  destruct (eye_mzero_spec n) as (e & Ee & Ge & He). rewrite Ee. cbn [bind].
  destruct (LU_solve_correct A e B L U n n GA Ge HBr HBc Hn ELU GL GU HLt HLu HUt HUd HLU)
    as (B' & EB & GB & HB).
  exists B'. split; [exact EB|]. split; [exact GB|].
  now apply fm_eq_trans with (fm_of e).
Qed.

Theorem inverse_pivoted_LU_correct A B L U pl n :
  good A n n -> drow B = n -> dcol B = n -> 0 < n ->
  pivoted_LU A (mzero n n) (mzero n n) [] = Ok (L, U, pl) ->
  good L n n -> good U n n -> perm_ok n pl ->
  lower_tri n (fm_of L) -> unit_diag n (fm_of L) ->
  upper_tri n (fm_of U) -> nonzero_diag n (fm_of U) ->
  fm_eq n n (fm_mul n (fm_of L) (fm_of U)) (apply_perm pl (fm_of A)) ->
  exists B', inverse_pivoted_LU A B = Ok B' /\ good B' n n /\
    fm_eq n n (fm_mul n (fm_of A) (fm_of B')) fm_id.
Proof.
  intros GA HBr HBc Hn ELU GL GU Hp HLt HLu HUt HUd HLU.
  pose proof GA as (_ & _ & HrA & HcA).
  unfold inverse_pivoted_LU. rewrite HrA, HcA.
  destruct (eye_mzero_spec n) as (e & Ee & Ge & He). rewrite Ee. cbn [bind].
  destruct (pivoted_LU_solve_correct A e B L U pl n n GA Ge HBr HBc Hn ELU GL GU Hp
              HLt HLu HUt HUd HLU) as (B' & EB & GB & HB).
  exists B'. split; [exact EB|]. split; [exact GB|].
  now apply fm_eq_trans with (fm_of e).
Qed.
