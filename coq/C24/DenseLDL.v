(* C24 -- the LDL^T factorisation of the model (LDL) and the solver built on it (LDL_solve).

   LDL(A, L, D) first sets D = 0 and L = identity, then for i = 0 .. n-1
     for j < i:  L[i,j] = (1 / D[j,j]) * (A[i,j] - sum_{k<j} L[i,k] L[j,k] D[k,k])
     D[i,i] = A[i,i] - sum_{k<i} L[i,k]^2 D[k,k]
   It reads the lower triangle and the diagonal of A only, never leaves the vectors and
   throws nothing: it always returns (LDL_always_ok).

   The guard.  The numbers the algorithm divides by are the D[j,j] with j + 1 < n (D[j,j] is
   used by the rows i > j; the last pivot D[n-1,n-1] is never divided by).  D[j,j] is written
   once, at the end of row j, and never again, so the pivots the divisions saw are the
   diagonal entries of the D returned: the guard can be read off the result.
   - when one of those pivots is zero the code computes 1/0 = zoo (no exception) and the
     factors contain zoo / nan in general, but that zero is still on the diagonal of D;
   - when all of them are non-zero every number computed is rational and the result is the
     factorisation: L unit lower triangular, D diagonal, and the lower triangle of
     L * (D * L^T) is the lower triangle of A (all of A when A is symmetric).
   This is LDL_dichotomy; LDL_partial / LDL_partial_sym are the partial-correctness readings. *)
From SE Require Import C24.DenseModel C24.DenseBase C24.DenseSpec C24.DenseOps C24.DenseOps3
  C24.DenseSolve C24.DenseLU C24.DenseGuards.
From Coq Require Import Lia ZifyBool ZifyNat ZifyN.
Local Open Scope N_scope.
Local Open Scope res_scope.

(* the rational value of entry (i, j) of a row-major vector *)
Definition ev (m : list qx) (col i j : N) : Qc := qv (ent m col i j).

Lemma ev_same m m' col i j : ent m' col i j = ent m col i j -> ev m' col i j = ev m col i j.
Proof. unfold ev. now intros ->. Qed.

Lemma fin_vec_ent m row col r c :
  lenN m = row * col -> fin_vec m -> r < row -> c < col -> ent m col r c = Fin (ev m col r c).
Proof. intros HL HF Hr Hc. apply is_fin_qv. apply HF. rewrite HL. now apply idx_lt. Qed.

Lemma rd_fin m row col i j :
  lenN m = row * col -> fin_vec m -> i < row -> j < col ->
  rd m (i * col + j) = Ok (Fin (ev m col i j)).
Proof.
  intros HL HF Hi Hj. rewrite rd_ok by (rewrite HL; now apply idx_lt).
  f_equal. exact (fin_vec_ent m row col i j HL HF Hi Hj).
Qed.

(* an n x n vector of rational numbers *)
Definition gv (n : N) (m : list qx) : Prop := lenN m = n * n /\ fin_vec m.

Lemma gv_of_good A n : good A n n -> gv n (dm A).
Proof.
  intros (W & F & Hr & Hc). split; [|exact F]. unfold wf in W. now rewrite W, Hr, Hc.
Qed.

(* storing a number *)
Lemma gv_upd n m i j v :
  gv n m -> i < n -> j < n ->
  gv n (upd m (N.to_nat (i * n + j)) (Fin v)) /\
  (forall a b, a < n -> b < n -> (a <> i \/ b <> j) ->
     ent (upd m (N.to_nat (i * n + j)) (Fin v)) n a b = ent m n a b) /\
  ev (upd m (N.to_nat (i * n + j)) (Fin v)) n i j = v.
Proof.
  intros (HL & HF) Hi Hj. split; [split|split].
  - now rewrite lenN_upd.
  - now apply fin_vec_upd.
  - intros a b Ha Hb Hne. rewrite (ent_upd m n n i j a b) by assumption.
    replace ((a =? i) && (b =? j)) with false; [reflexivity|].
    symmetry. apply andb_false_iff. destruct Hne; [left | right]; now apply N.eqb_neq.
  - unfold ev. rewrite (ent_upd m n n i j i j) by assumption. now rewrite !N.eqb_refl.
Qed.

(* an accumulating loop on a number, sum = sum + f k: what it computes, whatever the terms
   are (numbers, zoo, nan) ... *)
Fixpoint xsum_nat (t : nat) (f : N -> qx) : qx :=
  match t with O => x0 | S t' => xadd (xsum_nat t' f) (f (N.of_nat t')) end.
Definition xsum (j : N) (f : N -> qx) : qx := xsum_nat (N.to_nat j) f.

Lemma xsum_succ j f : xsum (j + 1) f = xadd (xsum j f) (f j).
Proof.
  unfold xsum. replace (N.to_nat (j + 1)) with (S (N.to_nat j)) by lia.
  cbn [xsum_nat]. now rewrite N2Nat.id.
Qed.

Lemma acc_loop kmax (body : N -> qx -> res qx) (f : N -> qx) :
  (forall k s, k < kmax -> body k s = Ok (xadd s (f k))) ->
  for_range 0 kmax body x0 = Ok (xsum kmax f).
Proof.
  intros H.
  destruct (for_range_inv (fun k s => s = xsum k f) 0 kmax body x0) as (s' & E & HP).
  - lia.
  - reflexivity.
  - intros k s [_ Hk] ->. rewrite H by assumption. eexists; split; [reflexivity|].
    now rewrite xsum_succ.
  - now rewrite E, HP.
Qed.

(* ... and on numbers it is the sum *)
Lemma xsum_fin j f (g : N -> Qc) : (forall k, k < j -> f k = Fin (g k)) -> xsum j f = Fin (sumN j g).
Proof.
  induction j as [|j IH] using N.peano_ind; intros H; [reflexivity|].
  rewrite <- N.add_1_r. rewrite xsum_succ, sumN_succ, IH, H by (try lia; intros; apply H; lia).
  reflexivity.
Qed.

(* the initialisation loops *)
Lemma init_fill n (F : N -> N -> qx) m :
  lenN m = n * n ->
  exists m',
    for_range 0 n (fun i c => for_range 0 n (fun j c => wr c (i * n + j) (F i j)) c) m = Ok m' /\
    lenN m' = n * n /\ forall a b, a < n -> b < n -> ent m' n a b = F a b.
Proof.
  intros HL.
  destruct (fill2 n n (fun i j c => wr c (i * n + j) (F i j)) (fun i j => i * n + j) F (n * n) m HL)
    as (c' & E & HL' & Hv & _).
  - intros; reflexivity.
  - intros; now apply idx_lt.
  - intros i j i' j'. apply rm_inj.
  - exists c'. split; [exact E|]. split; [exact HL'|]. intros a b Ha Hb. exact (Hv a b Ha Hb).
Qed.

Lemma gv_of_ent n m (F : N -> N -> qx) :
  lenN m = n * n -> (forall a b, a < n -> b < n -> ent m n a b = F a b) ->
  (forall a b, a < n -> b < n -> is_fin (F a b)) -> gv n m.
Proof.
  intros HL HE HF. split; [exact HL|].
  apply (fin_vec_of_ent m n n HL). intros r c Hr Hc. rewrite HE by assumption. now apply HF.
Qed.

(* LDL and cholesky both build, row by row, a lower triangular l and weights d (cholesky: d = 1;
   LDL: l has a unit diagonal) such that (l diag(d) l^T)[a,b] = A[a,b] for b <= a.  As l is lower
   triangular the sum stops at k = b; its last term holds the entry l[a,b] being stored. *)
Definition fact_eq (A l : fm) (d : N -> Qc) (a b : N) : Prop :=
  sumN (b + 1) (fun k => (l a k * d k * l b k)%Qc) = A a b.

(* the equation of (a, b) only reads columns <= b of rows a and b *)
Lemma fact_eq_ext A l d l' d' a b :
  (forall k, k <= b -> l' a k = l a k /\ l' b k = l b k /\ d' k = d k) ->
  fact_eq A l d a b -> fact_eq A l' d' a b.
Proof.
  intros H E. unfold fact_eq. rewrite <- E. apply sumN_ext. intros k Hk.
  destruct (H k ltac:(lia)) as (-> & -> & ->). reflexivity.
Qed.

Lemma fact_sum n (l : fm) (d : N -> Qc) a b :
  lower_tri n l -> b < n ->
  sumN n (fun k => (l a k * d k * l b k)%Qc) = sumN (b + 1) (fun k => (l a k * d k * l b k)%Qc).
Proof.
  intros HL Hb. rewrite (sumN_split n (b + 1)) by lia.
  rewrite (sumN_zero (n - (b + 1))); [ring|].
  intros k Hk. rewrite (HL b (b + 1 + k)) by lia. ring.
Qed.

(* with D diagonal, (L D L^T)[a,b] = sum_k L[a,k] D[k,k] L[b,k] *)
Lemma ldl_prod_diag n (Lf Df : fm) a b :
  lower_tri n Df -> upper_tri n Df ->
  fm_mul n Lf (fm_mul n Df (fm_transpose Lf)) a b =
  sumN n (fun k => (Lf a k * Df k k * Lf b k)%Qc).
Proof.
  intros HDl HDu. unfold fm_mul. apply sumN_ext. intros k Hk.
  rewrite (sumN_single n _ k Hk).
  - unfold fm_transpose. ring.
  - intros l Hl Hne. destruct (N.lt_ge_cases k l) as [Hlt|Hge].
    + rewrite (HDl k l Hk Hl Hlt). ring.
    + rewrite (HDu k l Hk ltac:(lia)). ring.
Qed.

Lemma ldl_prod_sym n (Lf Df : fm) a b :
  lower_tri n Df -> upper_tri n Df ->
  fm_mul n Lf (fm_mul n Df (fm_transpose Lf)) a b =
  fm_mul n Lf (fm_mul n Df (fm_transpose Lf)) b a.
Proof.
  intros HDl HDu. rewrite !ldl_prod_diag by assumption. apply sumN_ext. intros k _. ring.
Qed.

Definition ldl_lsum (n : N) (lm dmm : list qx) (i j : N) : res qx :=
  for_range 0 j (fun k sum =>
    do lik <- rd lm (i * n + k);
    do ljk <- rd lm (j * n + k);
    do dkk <- rd dmm (k * n + k);
    Ok (xadd sum (xmul (xmul lik ljk) dkk))) x0.

Definition ldl_jbody (n : N) (am : list qx) (i j : N) (st : list qx * list qx)
  : res (list qx * list qx) :=
  let (lm, dmm) := st in
  do sum <- ldl_lsum n lm dmm i j;
  do djj <- rd dmm (j * n + j);
  do aij <- rd am (i * n + j);
  do lm <- wr lm (i * n + j) (xmul (xdiv x1 djj) (xsub aij sum));
  Ok (lm, dmm).

Definition ldl_dsum (n : N) (lm dmm : list qx) (i : N) : res qx :=
  for_range 0 i (fun k sum =>
    do lik <- rd lm (i * n + k);
    do dkk <- rd dmm (k * n + k);
    Ok (xadd sum (xmul (xpow2 lik) dkk))) x0.

Definition ldl_row (n : N) (am : list qx) (i : N) (st : list qx * list qx)
  : res (list qx * list qx) :=
  do st <- for_range 0 i (ldl_jbody n am i) st;
  let (lm, dmm) := st in
  do sum <- ldl_dsum n lm dmm i;
  do aii <- rd am (i * n + i);
  do dmm <- wr dmm (i * n + i) (xsub aii sum);
  Ok (lm, dmm).

(* LDL is these pieces *)
Lemma LDL_eq A L D :
  LDL A L D =
  let n := dcol A in
  do dmm <- for_range 0 n (fun i dmm =>
              for_range 0 n (fun j dmm => wr dmm (i * n + j) x0) dmm) (dm D);
  do lm <- for_range 0 n (fun i lm =>
             for_range 0 n (fun j lm => wr lm (i * n + j) (if j =? i then x1 else x0)) lm) (dm L);
  do st <- for_range 0 n (ldl_row n (dm A)) (lm, dmm);
  Ok (setm L (fst st), setm D (snd st)).
Proof. reflexivity. Qed.

(* the diagonal of D *)
Definition dg (dmm : list qx) (n k : N) : Qc := ev dmm n k k.

Lemma ldl_lsum_x n lm dmm i j :
  lenN lm = n * n -> lenN dmm = n * n -> i < n -> j < n ->
  ldl_lsum n lm dmm i j =
  Ok (xsum j (fun k => xmul (xmul (ent lm n i k) (ent lm n j k)) (ent dmm n k k))).
Proof.
  intros HLl HLd Hi Hj. unfold ldl_lsum. apply acc_loop. intros k s Hk.
  rewrite rd_ok by (rewrite HLl; apply idx_lt; lia). cbn [bind].
  rewrite rd_ok by (rewrite HLl; apply idx_lt; lia). cbn [bind].
  rewrite rd_ok by (rewrite HLd; apply idx_lt; lia). reflexivity.
Qed.

Lemma ldl_dsum_x n lm dmm i :
  lenN lm = n * n -> lenN dmm = n * n -> i < n ->
  ldl_dsum n lm dmm i = Ok (xsum i (fun k => xmul (xpow2 (ent lm n i k)) (ent dmm n k k))).
Proof.
  intros HLl HLd Hi. unfold ldl_dsum. apply acc_loop. intros k s Hk.
  rewrite rd_ok by (rewrite HLl; apply idx_lt; lia). cbn [bind].
  rewrite rd_ok by (rewrite HLd; apply idx_lt; lia). reflexivity.
Qed.

Lemma ldl_jloop_fin n am lm dmm i :
  gv n am -> gv n lm -> gv n dmm -> i < n ->
  (forall b, b < i -> ev lm n b b = 1%Qc /\ dg dmm n b <> 0%Qc) ->
  exists lm', for_range 0 i (ldl_jbody n am i) (lm, dmm) = Ok (lm', dmm) /\ gv n lm' /\
    (forall a b, a < n -> b < n -> (a <> i \/ i <= b) -> ent lm' n a b = ent lm n a b) /\
    (forall b, b < i -> fact_eq (ev am n) (ev lm' n) (dg dmm n) i b).
Proof.
  intros (HLa & HFa) (HLl & HFl) (HLd & HFd) Hi Hnz.
  pose (Q := fun (j : N) (st : list qx * list qx) =>
    snd st = dmm /\ gv n (fst st) /\
    (forall a b, a < n -> b < n -> (a <> i \/ j <= b) -> ent (fst st) n a b = ent lm n a b) /\
    (forall b, b < j -> fact_eq (ev am n) (ev (fst st) n) (dg dmm n) i b)).
  destruct (for_range_inv Q 0 i (ldl_jbody n am i) (lm, dmm)) as ([l' d'] & E & HQ).
  - lia.
  - unfold Q; cbn [fst snd]. split; [reflexivity|]. split; [split; assumption|].
    split; [reflexivity|]. intros b Hb; lia.
  - intros j [l1 d1] [_ Hj] (Hd1 & G1 & Hfr & Heq). cbn [fst snd] in *. subst d1.
    destruct (Hnz j Hj) as (Hu & Hp). pose proof G1 as (HL1 & HF1).
    unfold ldl_jbody.
    rewrite (ldl_lsum_x n l1 dmm i j) by (assumption || lia). cbn [bind].
    rewrite (xsum_fin j _ (fun k => (ev l1 n i k * dg dmm n k * ev l1 n j k)%Qc)).
    2:{ intros k Hk.
        rewrite (fin_vec_ent l1 n n i k), (fin_vec_ent l1 n n j k), (fin_vec_ent dmm n n k k)
          by (assumption || lia).
        unfold dg. cbn [xmul]. f_equal. ring. }
    rewrite (rd_fin dmm n n j j) by (assumption || lia). cbn [bind].
    rewrite (rd_fin am n n i j) by (assumption || lia). cbn [bind].
    rewrite xdiv_one_fin by exact Hp.
    rewrite xsub_fin, xmul_fin.
    rewrite wr_ok by (rewrite HL1; apply idx_lt; lia). cbn [bind].
    eexists; split; [reflexivity|].
    match goal with |- Q _ (upd l1 _ (Fin ?w), _) => set (v := w) end.
    destruct (gv_upd n l1 i j v G1 Hi ltac:(lia)) as (G2 & U & Uv).
    set (l2 := upd l1 (N.to_nat (i * n + j)) (Fin v)) in *.
    assert (Hsame : forall a b, a < n -> b < n -> (a <> i \/ b <> j) -> ev l2 n a b = ev l1 n a b).
    { intros a b Ha Hb Hc. apply ev_same. now apply U. }
    unfold Q; cbn [fst snd]. split; [reflexivity|]. split; [exact G2|]. split.
    + intros a b Ha Hb Hc. rewrite U by (try assumption; lia). apply Hfr; (assumption || lia).
    + intros b Hb. destruct (N.eq_dec b j) as [->|Hne].
      * unfold fact_eq. rewrite sumN_succ, Uv.
        rewrite (sumN_ext j _ (fun k => (ev l1 n i k * dg dmm n k * ev l1 n j k)%Qc))
          by (intros k Hk; rewrite !Hsame by lia; reflexivity).
        rewrite (Hsame j j), (ev_same lm l1 n j j), Hu by (try apply Hfr; lia).
        unfold v, dg. field. exact Hp.
      * apply (fact_eq_ext _ (ev l1 n) (dg dmm n)); [|apply Heq; lia].
        intros k Hk. rewrite !Hsame by lia. auto.
  - destruct HQ as (Hd' & G & Hfr & Heq). cbn [fst snd] in *. subst d'.
    exists l'. split; [exact E|]. split; [exact G|]. split; [exact Hfr | exact Heq].
Qed.

Lemma ldl_jloop_tot n am lm dmm i :
  lenN am = n * n -> lenN lm = n * n -> lenN dmm = n * n -> i < n ->
  exists lm', for_range 0 i (ldl_jbody n am i) (lm, dmm) = Ok (lm', dmm) /\ lenN lm' = n * n.
Proof.
  intros HLa HLl HLd Hi.
  pose (Q := fun (j : N) (st : list qx * list qx) => snd st = dmm /\ lenN (fst st) = n * n).
  destruct (for_range_inv Q 0 i (ldl_jbody n am i) (lm, dmm)) as ([l' d'] & E & HQ).
  - lia.
  - split; [reflexivity | assumption].
  - intros j [l1 d1] [_ Hj] (Hd1 & HL1). cbn [fst snd] in *. subst d1. unfold ldl_jbody.
    rewrite (ldl_lsum_x n l1 dmm i j HL1 HLd Hi) by lia. cbn [bind].
    rewrite rd_ok by (rewrite HLd; apply idx_lt; lia). cbn [bind].
    rewrite rd_ok by (rewrite HLa; apply idx_lt; lia). cbn [bind].
    rewrite wr_ok by (rewrite HL1; apply idx_lt; lia). cbn [bind].
    eexists; split; [reflexivity|]. split; [reflexivity|]. cbn [fst]. now rewrite lenN_upd.
  - destruct HQ as (Hd' & HL'). cbn [fst snd] in *. subst d'. exists l'. split; assumption.
Qed.

Lemma ldl_row_fin n am lm dmm i :
  gv n am -> gv n lm -> gv n dmm -> i < n ->
  (forall b, b <= i -> ev lm n b b = 1%Qc) -> (forall b, b < i -> dg dmm n b <> 0%Qc) ->
  exists lm' dmm', ldl_row n am i (lm, dmm) = Ok (lm', dmm') /\ gv n lm' /\ gv n dmm' /\
    (forall a b, a < n -> b < n -> (a <> i \/ i <= b) -> ent lm' n a b = ent lm n a b) /\
    (forall a b, a < n -> b < n -> (a <> i \/ b <> i) -> ent dmm' n a b = ent dmm n a b) /\
    (forall b, b <= i -> fact_eq (ev am n) (ev lm' n) (dg dmm' n) i b).
Proof.
  intros Ga Gl Gd Hi Hu Hnz.
  destruct (ldl_jloop_fin n am lm dmm i Ga Gl Gd Hi) as (lm' & E & Gl' & Hfr & Heq).
  { intros b Hb. split; [apply Hu; lia | now apply Hnz]. }
  unfold ldl_row. rewrite E. cbn [bind].
  rewrite (ldl_dsum_x n lm' dmm i (proj1 Gl') (proj1 Gd) Hi). cbn [bind].
  rewrite (xsum_fin i _ (fun k => (ev lm' n i k * dg dmm n k * ev lm' n i k)%Qc)).
  2:{ intros k Hk.
      rewrite (fin_vec_ent lm' n n i k), (fin_vec_ent dmm n n k k) by (apply Gl' || apply Gd || lia).
      unfold dg. cbn [xpow2 xmul]. f_equal. ring. }
  rewrite (rd_fin am n n i i) by (apply Ga || assumption). cbn [bind].
  rewrite xsub_fin.
  rewrite wr_ok by (rewrite (proj1 Gd); apply idx_lt; lia). cbn [bind].
  match goal with |- context [upd dmm _ (Fin ?w)] => set (v := w) end.
  destruct (gv_upd n dmm i i v Gd Hi Hi) as (Gd' & U & Uv).
  set (d2 := upd dmm (N.to_nat (i * n + i)) (Fin v)) in *.
  assert (Hd : forall k, k < i -> dg d2 n k = dg dmm n k).
  { intros k Hk. apply ev_same. apply U; lia. }
  exists lm', d2. split; [reflexivity|].
  split; [exact Gl'|]. split; [exact Gd'|]. split; [exact Hfr|]. split; [exact U|].
  intros b Hb. destruct (N.eq_dec b i) as [->|Hne].
  - unfold fact_eq. rewrite sumN_succ. fold (dg d2 n i) in Uv. rewrite Uv.
    rewrite (sumN_ext i _ (fun k => (ev lm' n i k * dg dmm n k * ev lm' n i k)%Qc))
      by (intros k Hk; rewrite Hd by lia; reflexivity).
    rewrite (ev_same lm lm' n i i), Hu by (try apply Hfr; lia). unfold v. ring.
  - apply (fact_eq_ext _ (ev lm' n) (dg dmm n)); [|apply Heq; lia].
    intros k Hk. rewrite Hd by lia. auto.
Qed.

Lemma ldl_row_tot n am lm dmm i :
  lenN am = n * n -> lenN lm = n * n -> lenN dmm = n * n -> i < n ->
  exists lm' v, ldl_row n am i (lm, dmm) = Ok (lm', upd dmm (N.to_nat (i * n + i)) v) /\
    lenN lm' = n * n.
Proof.
  intros HLa HLl HLd Hi.
  destruct (ldl_jloop_tot n am lm dmm i HLa HLl HLd Hi) as (lm' & E & HL').
  unfold ldl_row. rewrite E. cbn [bind].
  rewrite (ldl_dsum_x n lm' dmm i HL' HLd Hi). cbn [bind].
  rewrite rd_ok by (rewrite HLa; apply idx_lt; lia). cbn [bind].
  rewrite wr_ok by (rewrite HLd; apply idx_lt; lia). cbn [bind].
  eexists; eexists; split; [reflexivity | exact HL'].
Qed.

(* rows < i are finished, the others still are those of the identity (L) and zero (D); the
   pivots met so far that will be divided by are non-zero *)
Definition ldl_inv (n i : N) (lm dmm : list qx) (A : fm) : Prop :=
  gv n lm /\ gv n dmm /\
  (forall a b, a < i -> b <= a -> fact_eq A (ev lm n) (dg dmm n) a b) /\
  (forall a b, a < n -> b < n -> (i <= a \/ a <= b) -> ent lm n a b = if b =? a then x1 else x0) /\
  (forall a b, a < n -> b < n -> (i <= a \/ a <> b) -> ent dmm n a b = x0) /\
  (forall b, b < i -> b + 1 < n -> dg dmm n b <> 0%Qc).

Lemma ldl_loop n am lm dmm :
  gv n am -> gv n lm -> gv n dmm ->
  (forall a b, a < n -> b < n -> ent lm n a b = if b =? a then x1 else x0) ->
  (forall a b, a < n -> b < n -> ent dmm n a b = x0) ->
  exists lm' dmm', for_range 0 n (ldl_row n am) (lm, dmm) = Ok (lm', dmm') /\
    lenN lm' = n * n /\ lenN dmm' = n * n /\
    (ldl_inv n n lm' dmm' (ev am n) \/ exists b, b + 1 < n /\ ent dmm' n b b = x0).
Proof.
  intros Ga Gl Gd HI HZ.
  pose (P := fun (i : N) (st : list qx * list qx) =>
    lenN (fst st) = n * n /\ lenN (snd st) = n * n /\
    (ldl_inv n i (fst st) (snd st) (ev am n) \/
     exists b, b < i /\ b + 1 < n /\ ent (snd st) n b b = x0)).
  destruct (for_range_inv P 0 n (ldl_row n am) (lm, dmm)) as ([l' d'] & E & HP).
  - lia.
  - unfold P; cbn [fst snd]. split; [apply Gl|]. split; [apply Gd|]. left.
    split; [assumption|]. split; [assumption|]. split; [intros; lia|].
    split; [intros a b Ha Hb _; now apply HI|]. split; [intros a b Ha Hb _; now apply HZ|].
    intros; lia.
  - intros i [l1 d1] [_ Hi] (HL1 & HD1 & HC). cbn [fst snd] in *.
    destruct HC as [(G1 & G2 & I1 & I3 & I4 & I5)|(b & Hb & Hb1 & Hz)].
    + (* rational so far *)
      destruct (ldl_row_fin n am l1 d1 i Ga G1 G2 Hi) as (l2 & d2 & E2 & G1' & G2' & FL & FD & Eq).
      { intros b Hb. unfold ev. rewrite I3, N.eqb_refl by lia. reflexivity. }
      { intros b Hb. apply I5; lia. }
      exists (l2, d2). split; [exact E2|]. unfold P; cbn [fst snd].
      split; [apply G1'|]. split; [apply G2'|].
      assert (HevL : forall a b, a < n -> b < n -> (a <> i \/ i <= b) -> ev l2 n a b = ev l1 n a b).
      { intros a b Ha Hb Hc. apply ev_same. now apply FL. }
      assert (HevD : forall k, k < n -> k <> i -> dg d2 n k = dg d1 n k).
      { intros k Hk Hc. apply ev_same. apply FD; auto. }
      destruct (pivot_case i n (dg d2 n i)) as [[Hlt Hz]|Hnz].
      * (* a zero pivot that will be divided by: it stays where it is *)
        right. exists i. split; [lia|]. split; [assumption|].
        rewrite (fin_vec_ent d2 n n i i (proj1 G2') (proj2 G2') Hi Hi). fold (dg d2 n i).
        now rewrite Hz.
      * left. split; [assumption|]. split; [assumption|]. split; [|split; [|split]].
        -- intros a b Ha Hb. destruct (N.eq_dec a i) as [->|Hne]; [now apply Eq|].
           apply (fact_eq_ext _ (ev l1 n) (dg d1 n)); [|apply I1; lia].
           intros k Hk. rewrite !HevL, HevD by lia. auto.
        -- intros a b Ha Hb Hc. rewrite FL by (try assumption; lia). apply I3; (assumption || lia).
        -- intros a b Ha Hb Hc. rewrite FD by (try assumption; lia). apply I4; (assumption || lia).
        -- intros b Hb Hb1. destruct (N.eq_dec b i) as [->|Hne]; [now apply Hnz|].
           rewrite HevD by lia. apply I5; lia.
    + (* a zero pivot was met before: nothing is known but the frame *)
      destruct (ldl_row_tot n am l1 d1 i (proj1 Ga) HL1 HD1 Hi) as (l2 & v & E2 & HL2).
      eexists; split; [exact E2|]. unfold P; cbn [fst snd].
      split; [assumption|]. split; [now rewrite lenN_upd|]. right.
      exists b. split; [lia|]. split; [assumption|].
      rewrite (ent_upd d1 n n i i b b) by (assumption || lia).
      destruct (N.eqb_spec b i); [lia|]. cbn [andb]. exact Hz.
  - destruct HP as (HL' & HD' & HC). cbn [fst snd] in *.
    exists l', d'. split; [exact E|]. split; [assumption|]. split; [assumption|].
    destruct HC as [HI'|(b & _ & Hb1 & Hz)]; [left; exact HI' | right; exists b; split; assumption].
Qed.

Lemma ldl_final n lm dmm (A Lf Df : fm) :
  ldl_inv n n lm dmm A ->
  (forall a b, Lf a b = ev lm n a b) -> (forall a b, Df a b = ev dmm n a b) ->
  unit_diag n Lf /\ lower_tri n Lf /\ lower_tri n Df /\ upper_tri n Df /\
  (forall j, j + 1 < n -> Df j j <> 0%Qc) /\
  (forall i j, j <= i -> i < n ->
     fm_mul n Lf (fm_mul n Df (fm_transpose Lf)) i j = A i j).
Proof.
  intros (G1 & G2 & I1 & I3 & I4 & I5) HLf HDf.
  assert (HU : unit_diag n Lf).
  { intros i Hi. rewrite HLf. unfold ev. rewrite I3 by (try assumption; lia).
    rewrite N.eqb_refl. reflexivity. }
  assert (HL : lower_tri n Lf).
  { intros i j Hi Hj Hij. rewrite HLf. unfold ev. rewrite I3 by (try assumption; lia).
    destruct (N.eqb_spec j i); [lia | reflexivity]. }
  assert (HDl : lower_tri n Df).
  { intros i j Hi Hj Hij. rewrite HDf. unfold ev. rewrite I4 by (try assumption; lia). reflexivity. }
  assert (HDu : upper_tri n Df).
  { intros i j Hi Hij. rewrite HDf. unfold ev. rewrite I4 by (try assumption; lia). reflexivity. }
  split; [assumption|]. split; [assumption|]. split; [assumption|]. split; [assumption|].
  split; [intros j Hj; rewrite HDf; apply I5; lia|].
  intros i j Hji Hi. rewrite ldl_prod_diag by assumption.
  rewrite (fact_sum n Lf (fun k => Df k k) i j HL) by lia. rewrite <- (I1 i j Hi Hji).
  apply sumN_ext. intros k Hk. rewrite !HLf, HDf. reflexivity.
Qed.

(* LDL always returns.  Either all the pivots it divided by were non-zero and the result is the
   factorisation, all rational; or it met a zero pivot D[b,b] with rows below it: it divided by
   it (1/0 = zoo), the factors contain zoo / nan in general, and that pivot is still there as
   a zero on the diagonal of D. *)
Theorem LDL_dichotomy A L0 D0 n :
  good A n n -> wf L0 -> drow L0 = n -> dcol L0 = n -> wf D0 -> drow D0 = n -> dcol D0 = n ->
  exists L D, LDL A L0 D0 = Ok (L, D) /\
    wf L /\ wf D /\ drow L = n /\ dcol L = n /\ drow D = n /\ dcol D = n /\
    ((fin_mat L /\ fin_mat D /\
      unit_diag n (fm_of L) /\ lower_tri n (fm_of L) /\
      lower_tri n (fm_of D) /\ upper_tri n (fm_of D) /\
      (forall j, j + 1 < n -> fm_of D j j <> 0%Qc) /\
      (forall i j, j <= i -> i < n ->
         fm_mul n (fm_of L) (fm_mul n (fm_of D) (fm_transpose (fm_of L))) i j = fm_of A i j))
     \/
     (exists b, b + 1 < n /\ entry D b b = x0)).
Proof.
  intros HA WL HrL HcL WD HrD HcD.
  pose proof (gv_of_good A n HA) as Ga. destruct HA as (WA & FA & HrA & HcA).
  assert (HLl : lenN (dm L0) = n * n) by (unfold wf in WL; now rewrite WL, HrL, HcL).
  assert (HLd : lenN (dm D0) = n * n) by (unfold wf in WD; now rewrite WD, HrD, HcD).
  rewrite LDL_eq. cbv zeta. rewrite HcA.
  destruct (init_fill n (fun _ _ => x0) (dm D0) HLd) as (d1 & E1 & HLd1 & Hd1).
  cbv beta in E1. rewrite E1. cbn [bind].
  destruct (init_fill n (fun i j => if j =? i then x1 else x0) (dm L0) HLl) as (l1 & E2 & HLl1 & Hl1).
  cbv beta in E2. rewrite E2. cbn [bind].
  assert (Gl1 : gv n l1).
  { apply (gv_of_ent n l1 _ HLl1 Hl1). intros a b _ _. destruct (b =? a); exact I. }
  assert (Gd1 : gv n d1).
  { apply (gv_of_ent n d1 _ HLd1 Hd1). intros a b _ _. exact I. }
  destruct (ldl_loop n (dm A) l1 d1 Ga Gl1 Gd1 Hl1 Hd1) as (l2 & d2 & E3 & HLl2 & HLd2 & HC).
  rewrite E3. cbn [bind fst snd].
  exists (setm L0 l2), (setm D0 d2). split; [reflexivity|].
  unfold wf, setm. cbn [dm drow dcol].
  split; [now rewrite HLl2, HrL, HcL|]. split; [now rewrite HLd2, HrD, HcD|].
  split; [assumption|]. split; [assumption|]. split; [assumption|]. split; [assumption|].
  destruct HC as [HI|(b & Hb & Hz)].
  - left. pose proof HI as (G1 & G2 & _).
    split; [apply G1|]. split; [apply G2|].
    destruct (ldl_final n l2 d2 (ev (dm A) n)
                (fm_of (mkmat (drow L0) (dcol L0) l2)) (fm_of (mkmat (drow D0) (dcol D0) d2)) HI)
      as (K1 & K2 & K3 & K4 & K5 & K6).
    + intros a b. unfold fm_of, val, entry, ev. cbn [dm dcol]. now rewrite HcL.
    + intros a b. unfold fm_of, val, entry, ev. cbn [dm dcol]. now rewrite HcD.
    + split; [assumption|]. split; [assumption|]. split; [assumption|]. split; [assumption|].
      split; [assumption|]. intros i j Hji Hi. rewrite (K6 i j Hji Hi).
      unfold fm_of, val, entry, ev. now rewrite HcA.
  - right. exists b. split; [assumption|]. unfold entry. cbn [dm dcol]. now rewrite HcD.
Qed.

Corollary LDL_always_ok A L0 D0 n :
  good A n n -> wf L0 -> drow L0 = n -> dcol L0 = n -> wf D0 -> drow D0 = n -> dcol D0 = n ->
  exists r, LDL A L0 D0 = Ok r.
Proof.
  intros HA WL HrL HcL WD HrD HcD.
  destruct (LDL_dichotomy A L0 D0 n HA WL HrL HcL WD HrD HcD) as (L & D & E & _).
  eexists. exact E.
Qed.

(* LDL_dichotomy in its partial-correctness form, the guard read off the result: the pivots the
   algorithm divides by are the diagonal entries D[j,j], j + 1 < n, of the result (they are
   written once); if none of them is zero then every number computed was rational and the
   result is the factorisation of the lower triangle of A. *)
Theorem LDL_partial A L0 D0 n L D :
  LDL A L0 D0 = Ok (L, D) ->
  good A n n -> wf L0 -> drow L0 = n -> dcol L0 = n -> wf D0 -> drow D0 = n -> dcol D0 = n ->
  (forall j, j + 1 < n -> x_is_zero (entry D j j) = false) ->
  good L n n /\ good D n n /\
  unit_diag n (fm_of L) /\ lower_tri n (fm_of L) /\
  lower_tri n (fm_of D) /\ upper_tri n (fm_of D) /\
  (forall i j, j <= i -> i < n ->
     fm_mul n (fm_of L) (fm_mul n (fm_of D) (fm_transpose (fm_of L))) i j = fm_of A i j).
Proof.
  intros E HA WL HrL HcL WD HrD HcD Hdiag.
  destruct (LDL_dichotomy A L0 D0 n HA WL HrL HcL WD HrD HcD)
    as (L' & D' & E' & W1 & W2 & D1 & D2 & D3 & D4 & HD).
  rewrite E' in E. inversion E; subst L' D'.
  destruct HD as [(F1 & F2 & H1 & H2 & H3 & H4 & _ & H5)|(b & Hb & Hz)].
  - unfold good. split; [tauto|]. split; [tauto|]. tauto.
  - specialize (Hdiag b Hb). rewrite Hz in Hdiag. discriminate.
Qed.

(* ... and of A itself when A is symmetric *)
Corollary LDL_partial_sym A L0 D0 n L D :
  LDL A L0 D0 = Ok (L, D) ->
  good A n n -> wf L0 -> drow L0 = n -> dcol L0 = n -> wf D0 -> drow D0 = n -> dcol D0 = n ->
  (forall j, j + 1 < n -> x_is_zero (entry D j j) = false) ->
  (forall i j, i < n -> j < n -> fm_of A i j = fm_of A j i) ->
  good L n n /\ good D n n /\
  unit_diag n (fm_of L) /\ lower_tri n (fm_of L) /\
  lower_tri n (fm_of D) /\ upper_tri n (fm_of D) /\
  fm_eq n n (fm_mul n (fm_of L) (fm_mul n (fm_of D) (fm_transpose (fm_of L)))) (fm_of A).
Proof.
  intros E HA WL HrL HcL WD HrD HcD Hdiag Hsym.
  destruct (LDL_partial A L0 D0 n L D E HA WL HrL HcL WD HrD HcD Hdiag)
    as (G1 & G2 & H1 & H2 & H3 & H4 & H5).
  split; [assumption|]. split; [assumption|]. split; [assumption|]. split; [assumption|].
  split; [assumption|]. split; [assumption|].
  intros i j Hi Hj. destruct (N.le_gt_cases j i) as [Hji|Hij].
  - now apply H5.
  - rewrite ldl_prod_sym by assumption. rewrite H5 by (assumption || lia). now apply Hsym.
Qed.

(* total-correctness reading of the same facts: LDL returns, and the guard on the D returned
   decides between the factorisation and a zero pivot *)
Corollary LDL_total A L0 D0 n :
  good A n n -> wf L0 -> drow L0 = n -> dcol L0 = n -> wf D0 -> drow D0 = n -> dcol D0 = n ->
  exists L D, LDL A L0 D0 = Ok (L, D) /\
    ((forall j, j + 1 < n -> x_is_zero (entry D j j) = false) ->
     good L n n /\ good D n n /\
     unit_diag n (fm_of L) /\ lower_tri n (fm_of L) /\
     lower_tri n (fm_of D) /\ upper_tri n (fm_of D) /\
     (forall i j, j <= i -> i < n ->
        fm_mul n (fm_of L) (fm_mul n (fm_of D) (fm_transpose (fm_of L))) i j = fm_of A i j)).
Proof.
  intros HA WL HrL HcL WD HrD HcD.
  destruct (LDL_always_ok A L0 D0 n HA WL HrL HcL WD HrD HcD) as ([L D] & E).
  exists L, D. split; [exact E|]. intros Hdiag.
  exact (LDL_partial A L0 D0 n L D E HA WL HrL HcL WD HrD HcD Hdiag).
Qed.

(* a matrix of rationals that passes the symmetry test is symmetric *)
Lemma is_symmetric_dense_true A n :
  good A n n -> is_symmetric_dense A = Ok true ->
  forall i j, i < n -> j < n -> fm_of A i j = fm_of A j i.
Proof.
  intros (WA & FA & HrA & HcA) Hs.
  destruct (is_symmetric_dense_spec A WA) as (b & Eb & Hb).
  rewrite Hs in Eb. inversion Eb; subst b. destruct (proj1 Hb eq_refl) as (_ & Hsym).
  assert (Hlt : forall i j, i < n -> j < n -> i < j -> fm_of A j i = fm_of A i j).
  { intros i j Hi Hj Hij. specialize (Hsym i j ltac:(lia) ltac:(lia) Hij).
    rewrite (fin_entry A j i), (fin_entry A i j) in Hsym by (assumption || lia).
    cbn [x_eqb] in Hsym. apply qc_eqb_eq in Hsym. exact Hsym. }
  intros i j Hi Hj. destruct (N.lt_trichotomy i j) as [H|[->|H]].
  - symmetry. now apply Hlt.
  - reflexivity.
  - now apply Hlt.
Qed.

(* the guard of LDL_solve: every pivot of the factorisation (the last one too: diagonal_solve
   divides by all of them) is non-zero.  It is a property of A, computed by running LDL. *)
Definition guard_ldl (A : dmat) : bool :=
  match LDL A (mzero (drow A) (dcol A)) (mzero (drow A) (dcol A)) with
  | Ok (L, D) =>
      forallb (fun j => negb (x_is_zero (entry D j j)))
              (map N.of_nat (seq 0 (N.to_nat (drow A))))
  | _ => false
  end.

Lemma guard_ldl_true A n :
  drow A = n -> dcol A = n -> guard_ldl A = true ->
  exists L D, LDL A (mzero n n) (mzero n n) = Ok (L, D) /\
    forall j, j < n -> x_is_zero (entry D j j) = false.
Proof.
  intros Hr Hc. unfold guard_ldl. rewrite Hr, Hc.
  destruct (LDL A (mzero n n) (mzero n n)) as [[L D]| | |]; try discriminate.
  intros H. exists L, D. split; [reflexivity|].
  exact (proj1 (diag_nonzero_b_spec D n) H).
Qed.

Theorem LDL_solve_guarded A b x n s :
  good A n n -> good b n s -> drow x = n -> dcol x = s -> wf x -> 0 < n ->
  is_symmetric_dense A = Ok true -> guard_ldl A = true ->
  exists x', LDL_solve A b x = Ok x' /\ good x' n s /\
    fm_eq n s (fm_mul n (fm_of A) (fm_of x')) (fm_of b).
Proof.
  intros GA Gb Hxr Hxc _ Hn Hsym Hg.
  pose proof GA as (_ & _ & HrA & HcA).
  destruct (guard_ldl_true A n HrA HcA Hg) as (L & D & E & Hnz).
  destruct (LDL_partial_sym A (mzero n n) (mzero n n) n L D E GA
              (wf_mzero n n) eq_refl eq_refl (wf_mzero n n) eq_refl eq_refl)
    as (GL & GD & H1 & H2 & H3 & H4 & H5).
  - intros j Hj. apply Hnz. lia.
  - exact (is_symmetric_dense_true A n GA Hsym).
  - apply (LDL_solve_correct A b x L D n s); try assumption.
    intros i Hi. specialize (Hnz i Hi). destruct GD as (WD & FD & HrD & HcD).
    rewrite (fin_entry D i i) in Hnz by (assumption || lia).
    cbn [x_is_zero] in Hnz. apply qc_is_zero_false in Hnz. exact Hnz.
Qed.
