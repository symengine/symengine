(* C24 -- specifications of the remaining elementary operations: matrix-level row
   operations, column exchange, in-place scaling, identity, submatrix (any steps). *)
From SE Require Import C24.DenseModel C24.DenseBase C24.DenseSpec C24.DenseOps.
From Coq Require Import Lia ZifyBool ZifyNat ZifyN.
Local Open Scope N_scope.
Local Open Scope res_scope.

Theorem row_exchange_dense_spec A i j :
  wf A -> i < drow A -> j < drow A -> i <> j ->
  exists A', row_exchange_dense A i j = Ok A' /\ wf A' /\ drow A' = drow A /\ dcol A' = dcol A /\
    forall r k, r < drow A -> k < dcol A ->
      entry A' r k = if r =? i then entry A j k else if r =? j then entry A i k else entry A r k.
Proof.
  intros W Hi Hj Hij. unfold row_exchange_dense.
  destruct (row_exchange_spec (dm A) (drow A) (dcol A) i j W Hi Hj Hij) as (m' & E & G & Hv).
  rewrite E. cbn [bind]. eexists; split; [reflexivity|].
  split; [exact G | split; [reflexivity | split; [reflexivity | exact Hv]]].
Qed.

Theorem row_mul_scalar_dense_spec A i c :
  wf A -> i < drow A ->
  exists A', row_mul_scalar_dense A i c = Ok A' /\ wf A' /\ drow A' = drow A /\ dcol A' = dcol A /\
    forall r k, r < drow A -> k < dcol A ->
      entry A' r k = if r =? i then xmul c (entry A i k) else entry A r k.
Proof.
  intros W Hi. unfold row_mul_scalar_dense.
  destruct (row_mul_scalar_spec (dm A) (drow A) (dcol A) i c W Hi) as (m' & E & G & Hv).
  rewrite E. cbn [bind]. eexists; split; [reflexivity|].
  split; [exact G | split; [reflexivity | split; [reflexivity | exact Hv]]].
Qed.

Theorem row_add_row_dense_spec A i j c :
  wf A -> i < drow A -> j < drow A -> i <> j ->
  exists A', row_add_row_dense A i j c = Ok A' /\ wf A' /\ drow A' = drow A /\ dcol A' = dcol A /\
    forall r k, r < drow A -> k < dcol A ->
      entry A' r k = if r =? i then xadd (entry A i k) (xmul c (entry A j k)) else entry A r k.
Proof.
  intros W Hi Hj Hij. unfold row_add_row_dense.
  destruct (row_add_row_spec (dm A) (drow A) (dcol A) i j c W Hi Hj Hij) as (m' & E & G & Hv).
  rewrite E. cbn [bind]. eexists; split; [reflexivity|].
  split; [exact G | split; [reflexivity | split; [reflexivity | exact Hv]]].
Qed.

Theorem column_exchange_dense_spec A i j :
  wf A -> i < dcol A -> j < dcol A -> i <> j ->
  exists A', column_exchange_dense A i j = Ok A' /\ wf A' /\ drow A' = drow A /\ dcol A' = dcol A /\
    forall r k, r < drow A -> k < dcol A ->
      entry A' r k = if k =? i then entry A r j else if k =? j then entry A r i else entry A r k.
Proof.
  intros W Hi Hj Hij. unfold column_exchange_dense. cbv zeta.
  pose (F := fun (t r k : N) =>
    if r <? t then (if k =? i then entry A r j else if k =? j then entry A r i else entry A r k)
    else entry A r k).
  apply (bind_ex _ _ (fun m' => holds m' (drow A) (dcol A) (F (drow A)))).
  - apply (holds_loop (drow A) (dcol A) F (entry A)); [lia | now split | | |].
    + intros r k _ _. unfold F. ffj_cases; reflexivity.
    + intros t s [_ Ht] Hs. rewrite !(holds_rd s _ _ _ Hs) by lia. cbn [bind].
      destruct (holds_wr s _ _ (F t) _ t i (F t t j) Hs Ht Hi (fun _ _ _ _ => eq_refl))
        as (s1 & E1 & H1).
      rewrite E1. cbn [bind]. apply (holds_wr s1 _ _ _ _ t j _ H1 Ht Hj).
      intros r k _ _. unfold F. ffj_cases; reflexivity.
    + reflexivity.
  - intros m' [HL Hm]. eexists; split; [reflexivity|].
    split; [exact HL | split; [reflexivity | split; [reflexivity|]]].
    intros r k Hr Hk. etransitivity; [exact (Hm r k Hr Hk)|]. unfold F. ffj_cases; reflexivity.
Qed.

Theorem mul_scalar_inplace_spec A k :
  wf A ->
  exists A', mul_scalar_inplace A k = Ok A' /\ wf A' /\ drow A' = drow A /\ dcol A' = dcol A /\
    forall i j, i < drow A -> j < dcol A -> entry A' i j = xmul (entry A i j) k.
Proof.
  intros W. unfold mul_scalar_inplace. cbv zeta.
  pose (F := fun (t a b : N) => if a <? t then xmul (entry A a b) k else entry A a b).
  apply (bind_ex _ _ (fun m' => holds m' (drow A) (dcol A) (F (drow A)))).
  - apply (holds_loop (drow A) (dcol A) F (entry A)); [lia | now split | | |].
    + intros a b _ _. unfold F. ffj_cases; reflexivity.
    + intros i s [_ Hi] Hs.
      (* cells before (i, j) in row-major order are scaled, the others untouched *)
      pose (G := fun (t a b : N) =>
        if (a <? i) || ((a =? i) && (b <? t)) then xmul (entry A a b) k else entry A a b).
      apply (holds_loop (drow A) (dcol A) G (F i)); [lia | exact Hs | | |].
      * intros a b _ _. unfold F, G. ffj_cases; reflexivity.
      * intros j u [_ Hj] Hu. rewrite (holds_rd u _ _ _ Hu) by lia. cbn [bind].
        apply (holds_wr u _ _ (G j)); try assumption.
        intros a b _ _. unfold G. ffj_cases; reflexivity.
      * intros a b _ Hb. unfold F, G. ffj_cases; reflexivity.
    + reflexivity.
  - intros m' [HL Hm]. eexists; split; [reflexivity|].
    split; [exact HL | split; [reflexivity | split; [reflexivity|]]].
    intros a b Ha Hb. etransitivity; [exact (Hm a b Ha Hb)|]. unfold F. ffj_cases; reflexivity.
Qed.

Theorem eye_spec A :
  wf A ->
  exists A', eye A = Ok A' /\ wf A' /\ drow A' = drow A /\ dcol A' = dcol A /\
    forall i j, i < drow A -> j < dcol A -> entry A' i j = if j =? i then x1 else x0.
Proof.
  intros W. unfold eye.
  apply (fill_rowmajor A (drow A) (dcol A) _ (fun i j => if j =? i then x1 else x0) W eq_refl eq_refl).
  intros i j m _ _. destruct (j =? i); reflexivity.
Qed.

Corollary eye_mzero n :
  exists Im, eye (mzero n n) = Ok Im /\ good Im n n /\ fm_eq n n (fm_of Im) fm_id.
Proof.
  destruct (eye_spec (mzero n n) (wf_mzero n n)) as (Im & E & W & Hr & Hc & Hv).
  cbn in Hr, Hc, Hv. exists Im. split; [exact E|].
  apply (good_of_entries Im n n fm_id W Hr Hc).
  intros i j Hi Hj. rewrite Hv by assumption. unfold fm_id.
  rewrite (N.eqb_sym j i). destruct (i =? j); reflexivity.
Qed.

Lemma ceil_mul_lt n step t : 1 <= step -> t < (n + step - 1) / step -> t * step < n.
Proof.
  intros Hs Ht.
  assert (H1 : step * ((n + step - 1) / step) <= n + step - 1) by (apply N.mul_div_le; lia).
  assert (H2 : step * (t + 1) <= step * ((n + step - 1) / step)) by (apply N.mul_le_mono_l; lia).
  lia.
Qed.

Lemma ceil_div_lt n step i :
  1 <= step -> i < n -> i mod step = 0 -> i / step < (n + step - 1) / step /\ i / step * step = i.
Proof.
  intros Hs Hi Hm.
  assert (Hd : i = step * (i / step) + i mod step) by (apply N.div_mod; lia).
  rewrite Hm in Hd.
  split; [|lia].
  assert (i / step + 1 <= (n + step - 1) / step); [|lia].
  apply N.div_le_lower_bound; lia.
Qed.

Theorem submatrix_dense_step_spec A B rs cs re ce rstep cstep :
  wf A -> wf B -> rs <= re -> cs <= ce -> re < drow A -> ce < dcol A ->
  drow B = re - rs + 1 -> dcol B = ce - cs + 1 -> 1 <= rstep -> 1 <= cstep ->
  exists B', submatrix_dense A B rs cs re ce rstep cstep = Ok B' /\ wf B' /\
    drow B' = drow B /\ dcol B' = dcol B /\
    forall i j, i < drow B -> j < dcol B ->
      entry B' i j = if (i mod rstep =? 0) && (j mod cstep =? 0)
                     then entry A (rs + i) (cs + j) else entry B i j.
Proof.
  intros WA WB Hrs Hcs Hre Hce Hr Hc Hrst Hcst. unfold submatrix_dense, for_step.
  destruct (N.eqb_spec rstep 0) as [?|_]; [lia|].
  destruct (N.eqb_spec cstep 0) as [?|_]; [lia|].
  set (R := (drow B + rstep - 1) / rstep). set (C := (dcol B + cstep - 1) / cstep).
  assert (HR : forall t, t < R -> t * rstep < drow B) by (intros t; apply ceil_mul_lt; assumption).
  assert (HC : forall u, u < C -> u * cstep < dcol B) by (intros u; apply ceil_mul_lt; assumption).
  destruct (fill2 R C
              (fun t u b => do a <- rd (dm A) ((rs + t * rstep) * dcol A + cs + u * cstep);
                            wr b (t * rstep * dcol B + u * cstep) a)
              (fun t u => t * rstep * dcol B + u * cstep)
              (fun t u => entry A (rs + t * rstep) (cs + u * cstep)) (drow B * dcol B) (dm B))
    as (c' & E & HL & Hv & Hu).
  - exact WB.
  - intros t u c Ht Hu _. specialize (HR t Ht). specialize (HC u Hu). unfold wf in WA.
    replace ((rs + t * rstep) * dcol A + cs + u * cstep)
      with ((rs + t * rstep) * dcol A + (cs + u * cstep)) by lia.
    rewrite rd_ok by (rewrite WA; apply idx_lt; clear - HR HC Hr Hc Hre Hce Hrs Hcs; lia). reflexivity.
  - intros t u Ht Hu. apply idx_lt; auto.
  - intros t u t' u' Ht Hu Ht' Hu' Eq. apply idx_inj in Eq; auto. destruct Eq as [E1 E2].
    apply N.mul_cancel_r in E1; [|lia]. apply N.mul_cancel_r in E2; [|lia]. auto.
  - rewrite E. cbn [bind]. eexists; split; [reflexivity|]. unfold wf, setm. cbn [dm drow dcol].
    split; [assumption | split; [reflexivity | split; [reflexivity|]]].
    intros i j Hi Hj. unfold entry at 1, ent. cbn [dm drow dcol].
    destruct (N.eqb_spec (i mod rstep) 0) as [e1|n1]; [destruct (N.eqb_spec (j mod cstep) 0) as [e2|n2]|];
      cbn [andb].
    + destruct (ceil_div_lt (drow B) rstep i Hrst Hi e1) as [Hq1 Hq2].
      destruct (ceil_div_lt (dcol B) cstep j Hcst Hj e2) as [Hq3 Hq4].
      specialize (Hv (i / rstep) (j / cstep) Hq1 Hq3). cbv beta in Hv.
      rewrite Hq2, Hq4 in Hv. exact Hv.
    + rewrite Hu; [reflexivity|]. intros t u Ht Hu' Eq. apply idx_inj in Eq; auto.
      destruct Eq as [_ Eq]. apply n2. rewrite <- Eq. apply N.mod_mul. clear - Hcst. lia.
    + rewrite Hu; [reflexivity|]. intros t u Ht Hu' Eq. apply idx_inj in Eq; auto.
      destruct Eq as [Eq _]. apply n1. rewrite <- Eq. apply N.mod_mul. clear - Hrst. lia.
Qed.

(* unit steps: every cell of B is written *)
Theorem submatrix_dense_spec A B rs cs re ce :
  wf A -> wf B -> rs <= re -> cs <= ce -> re < drow A -> ce < dcol A ->
  drow B = re - rs + 1 -> dcol B = ce - cs + 1 ->
  exists B', submatrix_dense A B rs cs re ce 1 1 = Ok B' /\ wf B' /\ drow B' = drow B /\ dcol B' = dcol B /\
    forall i j, i < drow B -> j < dcol B -> entry B' i j = entry A (rs + i) (cs + j).
Proof.
  intros WA WB Hrs Hcs Hre Hce Hr Hc.
  destruct (submatrix_dense_step_spec A B rs cs re ce 1 1 WA WB Hrs Hcs Hre Hce Hr Hc)
    as (B' & E & W' & Hr' & Hc' & Hv); [lia | lia |].
  exists B'. split; [exact E|]. split; [exact W'|]. split; [exact Hr'|]. split; [exact Hc'|].
  intros i j Hi Hj. rewrite (Hv i j Hi Hj). now rewrite !N.mod_1_r.
Qed.
