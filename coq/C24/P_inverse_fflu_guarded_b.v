(* C24 obligation: inverse_fraction_free_LU under guard_fflu: A * B = I *)
From SE Require Import C24.DenseModel C24.DenseBase C24.DenseSpec C24.DenseFF5.
Local Open Scope N_scope.
Local Open Scope res_scope.
Theorem C24_inverse_fflu_guarded_b :
  forall A B n,
  good A n n -> 0 < n -> wf B -> drow B = n -> dcol B = n ->
  guard_fflu A = true ->
  exists B', inverse_fraction_free_LU A B = Ok B' /\ good B' n n /\
    fm_eq n n (fm_mul n (fm_of A) (fm_of B')) fm_id.
Proof. exact inverse_fflu_guarded_b. Qed.
Print Assumptions C24_inverse_fflu_guarded_b.
