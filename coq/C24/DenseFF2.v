(* C24 -- the unpivoted fraction-free (Bareiss) routines, part 2: the meaning over Q of the
   step functions of DenseFF.v under the guard "no pivot met is zero" (read off the
   result: the diagonal entries are never rewritten after they served as pivots), and the
   specifications of fraction_free_gaussian_elimination and fraction_free_LU_solve. *)
From SE Require Import C24.DenseModel C24.DenseBase C24.DenseSpec C24.DenseOps C24.DenseGJ2 C24.DenseGE2 C24.DenseSolve C24.DenseFF.
From Coq Require Import Lia ZifyBool ZifyNat ZifyN.
Local Open Scope N_scope.
Local Open Scope res_scope.

Definition qden (i : N) (d : Qc) : Qc := if 0 <? i then d else 1%Qc.
Definition qcell (i : N) (pii pji dprev yj yi : Qc) : Qc :=
  ((pii * yj - pji * yi) / qden i dprev)%Qc.

Lemma xcell_fin i a b d yj yi :
  qden i d <> 0%Qc ->
  xcell i (Fin a) (Fin b) (Fin d) (Fin yj) (Fin yi) = Fin (qcell i a b d yj yi).
Proof.
  intros H. unfold xcell, qcell, qden in *. cbv zeta. rewrite !xmul_fin, xsub_fin.
  destruct (0 <? i).
  - now rewrite xdiv_fin.
  - now rewrite qcdiv_1_r.
Qed.

Lemma qcell_lin i a b d y y' :
  qcell i a b d y y' = (a / qden i d * y + (- b / qden i d) * y')%Qc.
Proof. unfold qcell, Qcdiv. ring. Qed.

Lemma qcell_inj i a b d y1 y2 y' :
  a <> 0%Qc -> qden i d <> 0%Qc -> qcell i a b d y1 y' = qcell i a b d y2 y' -> y1 = y2.
Proof.
  unfold qcell, Qcdiv. set (e := qden i d). intros Ha He H.
  assert (E : ((a * / e) * (y1 - y2) = 0)%Qc).
  { replace ((a * / e) * (y1 - y2))%Qc
      with ((a * y1 - b * y') * / e - (a * y2 - b * y') * / e)%Qc by ring.
    rewrite H. ring. }
  apply Qcmult_integral in E. destruct E as [E|E].
  - apply Qcmult_integral in E. destruct E as [E|E]; [contradiction|].
    exfalso. now apply (qcinv_nz e He).
  - replace y1 with ((y1 - y2) + y2)%Qc by ring. rewrite E. ring.
Qed.

(* stage i on a right-hand side Y with the pivots and multipliers of M *)
Definition fsstep (i : N) (M Y : fm) : fm :=
  fun a c => if i <? a then qcell i (M i i) (M a i) (M (i - 1) (i - 1)) (Y a c) (Y i c)
             else Y a c.
(* the row operation: stage i applied to all the columns of M itself *)
Definition ffstep (i : N) (M : fm) : fm := fsstep i M M.
(* what fraction_free_LU does: columns > i only *)
Definition lustep (i : N) (M : fm) : fm :=
  fun a b => if (i <? a) && (i <? b)
             then qcell i (M i i) (M a i) (M (i - 1) (i - 1)) (M a b) (M i b)
             else M a b.
(* what fraction_free_gaussian_elimination does: columns > i, column i cleared *)
Definition gestep (i : N) (M : fm) : fm :=
  fun a b => if i <? a
             then (if i <? b then qcell i (M i i) (M a i) (M (i - 1) (i - 1)) (M a b) (M i b)
                   else if b =? i then 0%Qc else M a b)
             else M a b.

(* the row operation commutes with a product on the right *)
Lemma ffstep_mul n i M z a c : fm_mul n (ffstep i M) z a c = fsstep i M (fm_mul n M z) a c.
Proof.
  unfold ffstep, fsstep, fm_mul. destruct (i <? a); [|reflexivity].
  rewrite (qcell_lin i _ _ _ (sumN n _)). rewrite <- !sumN_scale, <- sumN_plus.
  apply sumN_ext. intros k _. rewrite qcell_lin. ring.
Qed.

(* the row operation on [M | Y] does not add solutions *)
Lemma ffstep_sol n s i M Y z :
  i < n -> M i i <> 0%Qc -> qden i (M (i - 1) (i - 1)) <> 0%Qc ->
  fm_eq n s (fm_mul n (ffstep i M) z) (fsstep i M Y) -> fm_eq n s (fm_mul n M z) Y.
Proof.
  intros Hi Hp He H a c Ha Hc.
  pose proof (H i c Hi Hc) as Hrow. rewrite ffstep_mul in Hrow. unfold fsstep in Hrow.
  destruct (N.ltb_spec i i); [lia|].
  pose proof (H a c Ha Hc) as Ha'. rewrite ffstep_mul in Ha'. unfold fsstep in Ha'.
  destruct (N.ltb_spec i a); [|exact Ha'].
  rewrite Hrow in Ha'. exact (qcell_inj _ _ _ _ _ _ _ Hp He Ha').
Qed.

(* stage after stage: Z (t + 1) is the row operation on Z t, Y (t + 1) the same on the right-hand
   side; a solution of a later system is a solution of the first *)
Lemma stages_sol n s (Z Y : N -> fm) m :
  (forall t, t < m -> t < n /\ Z t t t <> 0%Qc /\ qden t (Z t (t - 1) (t - 1)) <> 0%Qc) ->
  (forall t, t < m -> fm_eq n n (ffstep t (Z t)) (Z (t + 1))) ->
  (forall t, t < m -> fm_eq n s (fsstep t (Z t) (Y t)) (Y (t + 1))) ->
  forall i, i <= m -> forall z,
    fm_eq n s (fm_mul n (Z i) z) (Y i) -> fm_eq n s (fm_mul n (Z 0) z) (Y 0).
Proof.
  intros HP HZ HY i. induction i as [|i IH] using N.peano_ind; intros Hle z H; [exact H|].
  rewrite <- N.add_1_r in *. apply (IH ltac:(lia) z).
  destruct (HP i ltac:(lia)) as (Hi & Hp & He).
  apply (ffstep_sol n s i (Z i) (Y i) z Hi Hp He).
  intros a c Ha Hc. rewrite (HY i ltac:(lia) a c Ha Hc), <- (H a c Ha Hc).
  apply fm_mul_ext; intros k Hk; [apply HZ; lia | reflexivity].
Qed.

(* it is the fraction-free elimination below row i (DenseGE2.v), so a composition of
   elementary row operations *)
Lemma ffstep_row_equiv r c i M :
  i < r -> M i i <> 0%Qc -> qden i (M (i - 1) (i - 1)) <> 0%Qc -> row_equiv r c M (ffstep i M).
Proof.
  intros Hi Hp He. eapply re_trans; [exact (fm_ffelim_equiv r c i i _ M Hi He Hp)|].
  apply re_refl. intros a b _ _. unfold fm_ffelim, ffstep, fsstep, qcell, Qcdiv.
  destruct (N.leb_spec a i), (N.ltb_spec i a); try lia; [reflexivity | ring].
Qed.

Lemma xlu_frozen a b t0 :
  (a <= t0 \/ b <= t0) ->
  forall t X, t0 <= t -> iterU t xlu_step X a b = iterU t0 xlu_step X a b.
Proof. intros H. apply iterU_stable. intros t X Ht. unfold xlu_step. ffj_cases; reflexivity. Qed.

Lemma lustep_frozen a b t0 :
  (a <= t0 \/ b <= t0) ->
  forall t M, t0 <= t -> iterU t lustep M a b = iterU t0 lustep M a b.
Proof. intros H. apply iterU_stable. intros t X Ht. unfold lustep. ffj_cases; reflexivity. Qed.

Lemma xge_frozen a b t0 :
  a <= t0 -> forall t X, t0 <= t -> iterU t xge_step X a b = iterU t0 xge_step X a b.
Proof. intros H. apply iterU_stable. intros t X Ht. unfold xge_step. ffj_cases; reflexivity. Qed.

Lemma gestep_frozen a b t0 :
  a <= t0 -> forall t M, t0 <= t -> iterU t gestep M a b = iterU t0 gestep M a b.
Proof. intros H. apply iterU_stable. intros t X Ht. unfold gestep. ffj_cases; reflexivity. Qed.

(* a represented matrix of numbers, put into a record of the right shape *)
Lemma holds_fin_good m r c X M B :
  holds m r c X -> (forall a b, a < r -> b < c -> X a b = Fin (M a b)) ->
  drow B = r -> dcol B = c ->
  good (setm B m) r c /\ fm_eq r c M (fm_of (setm B m)).
Proof.
  intros [HL HV] HF Hr Hc. apply repr_good; try assumption.
  split; [assumption|]. intros a b Ha Hb. rewrite HV by assumption. now apply HF.
Qed.

(* fraction_free_LU: when the diagonal of the result has no zero, every intermediate matrix
   is a matrix of numbers, given by the stages over Q *)
Lemma xlu_lift n XA Aq :
  (forall a b, a < n -> b < n -> XA a b = Fin (Aq a b)) ->
  (forall j, j < n -> x_is_zero (iterU (n - 1) xlu_step XA j j) = false) ->
  forall i, i <= n - 1 -> forall a b, a < n -> b < n ->
    iterU i xlu_step XA a b = Fin (iterU i lustep Aq a b).
Proof.
  intros HXA HG i. induction i as [|i IH] using N.peano_ind; intros Hle a b Ha Hb.
  - rewrite !iterU_0. now apply HXA.
  - rewrite <- N.add_1_r in *. rewrite !iterU_succ. specialize (IH ltac:(lia)).
    unfold xlu_step, lustep. destruct ((i <? a) && (i <? b)) eqn:E; [|now apply IH].
    apply andb_true_iff in E. destruct E as [E1 E2]. apply N.ltb_lt in E1, E2.
    rewrite !IH by lia. apply xcell_fin. unfold qden.
    destruct (N.ltb_spec 0 i) as [Hpos|_]; [|apply Q_apart_0_1].
    specialize (HG (i - 1) ltac:(lia)).
    rewrite (xlu_frozen (i - 1) (i - 1) i ltac:(lia) (n - 1)) in HG by lia.
    rewrite IH in HG by lia. cbn [x_is_zero] in HG. now apply qc_is_zero_false in HG.
Qed.

(* the same for fraction_free_gaussian_elimination on r x c entries; the pivots are the
   diagonal entries i with a row and a column after them *)
Lemma xge_lift r c XA Aq :
  (forall a b, a < r -> b < c -> XA a b = Fin (Aq a b)) ->
  (forall i, i + 1 < c -> i + 1 < r -> x_is_zero (iterU (c - 1) xge_step XA i i) = false) ->
  forall i, i <= c - 1 -> forall a b, a < r -> b < c ->
    iterU i xge_step XA a b = Fin (iterU i gestep Aq a b).
Proof.
  intros HXA HG i. induction i as [|i IH] using N.peano_ind; intros Hle a b Ha Hb.
  - rewrite !iterU_0. now apply HXA.
  - rewrite <- N.add_1_r in *. rewrite !iterU_succ. specialize (IH ltac:(lia)).
    unfold xge_step, gestep. destruct (N.ltb_spec i a) as [Hia|Hia]; [|now apply IH].
    destruct (N.ltb_spec i b) as [Hib|Hib].
    + rewrite !IH by lia. apply xcell_fin. unfold qden.
      destruct (N.ltb_spec 0 i) as [Hpos|_]; [|apply Q_apart_0_1].
      specialize (HG (i - 1) ltac:(lia) ltac:(lia)).
      rewrite (xge_frozen (i - 1) (i - 1) i ltac:(lia) (c - 1)) in HG by lia.
      rewrite IH in HG by lia. cbn [x_is_zero] in HG. now apply qc_is_zero_false in HG.
    + destruct (b =? i); [reflexivity | now apply IH].
Qed.

(* forward_substitution with a matrix of numbers whose diagonal has no zero *)
Lemma xfs_lift n s L T Y0 bq :
  (forall a b, a < n -> b < n -> L a b = Fin (T a b)) ->
  (forall j, j < n -> T j j <> 0%Qc) ->
  (forall a c, a < n -> c < s -> Y0 a c = Fin (bq a c)) ->
  forall i, i <= n - 1 -> forall a c, a < n -> c < s ->
    iterU i (fun t => xfs_step t L) Y0 a c = Fin (iterU i (fun t => fsstep t T) bq a c).
Proof.
  intros HL HT HY i. induction i as [|i IH] using N.peano_ind; intros Hle a c Ha Hc.
  - rewrite !iterU_0. now apply HY.
  - rewrite <- N.add_1_r in *. rewrite !iterU_succ. specialize (IH ltac:(lia)).
    unfold xfs_step, fsstep. destruct (N.ltb_spec i a) as [Hia|Hia]; [|now apply IH].
    rewrite !HL by lia. rewrite !IH by lia. apply xcell_fin. unfold qden.
    destruct (N.ltb_spec 0 i) as [Hpos|_]; [|apply Q_apart_0_1]. apply HT. lia.
Qed.

(* the stages of fraction_free_gaussian_elimination with non-zero pivots are row operations
   and clear the columns below the diagonal one after the other *)
Lemma gestep_inv r c Aq :
  (forall i, i + 1 < c -> i + 1 < r -> iterU (c - 1) gestep Aq i i <> 0%Qc) ->
  forall i, i <= c - 1 ->
    row_equiv r c Aq (iterU i gestep Aq) /\
    (forall j k, k < j -> k < i -> j < r -> iterU i gestep Aq j k = 0%Qc).
Proof.
  intros HP i. induction i as [|i IH] using N.peano_ind; intros Hle.
  - rewrite iterU_0. split; [|intros; lia]. apply re_refl. intros a b _ _. reflexivity.
  - rewrite <- N.add_1_r in *. rewrite iterU_succ. destruct (IH ltac:(lia)) as [HE HZ].
    set (Z := iterU i gestep Aq) in *. split.
    + eapply re_trans; [exact HE|].
      destruct (N.le_gt_cases r (i + 1)) as [Hr|Hr].
      * apply re_refl. intros a b Ha Hb. unfold gestep. ffj_cases; reflexivity.
      * eapply re_trans.
        { apply (ffstep_row_equiv r c i Z); [lia | |].
          - unfold Z. rewrite <- (gestep_frozen i i i ltac:(lia) (c - 1)) by lia.
            apply HP; lia.
          - unfold qden. destruct (N.ltb_spec 0 i) as [Hpos|_]; [|apply Q_apart_0_1].
            unfold Z. rewrite <- (gestep_frozen (i - 1) (i - 1) i ltac:(lia) (c - 1)) by lia.
            rewrite (gestep_frozen (i - 1) (i - 1) (i - 1) ltac:(lia) (c - 1)) by lia.
            rewrite <- (gestep_frozen (i - 1) (i - 1) (i - 1) ltac:(lia) (c - 1)) by lia.
            apply HP; lia. }
        apply re_refl. intros a b Ha Hb. unfold ffstep, fsstep, gestep.
        destruct (N.ltb_spec i a) as [Hia|Hia]; [|reflexivity].
        destruct (N.ltb_spec i b) as [Hib|Hib]; [reflexivity|].
        destruct (N.eqb_spec b i) as [->|ne].
        -- unfold qcell, Qcdiv. ring.
        -- rewrite (HZ a b), (HZ i b) by lia. unfold qcell, Qcdiv. ring.
    + intros j k Hkj Hki Hj. unfold gestep. ffj_cases; try reflexivity; apply HZ; lia.
Qed.

(* total on an r x c matrix of numbers (c > 0); when the pivots read off the result (the
   diagonal entries that have a row and a column after them) are non-zero, the result is a
   matrix of numbers, row equivalent to A, with zeros below the diagonal in the first c - 1
   columns *)
Theorem ffge_spec A B r c :
  good A r c -> 0 < c -> drow B = r -> dcol B = c ->
  exists B', fraction_free_gaussian_elimination A B = Ok B' /\
    ((forall i, i + 1 < c -> i + 1 < r -> x_is_zero (entry B' i i) = false) ->
     good B' r c /\ row_equiv r c (fm_of A) (fm_of B') /\
     (forall j k, k < j -> k < c - 1 -> j < r -> fm_of B' j k = 0%Qc) /\
     fm_eq r c (fm_of B') (iterU (c - 1) gestep (fm_of A))).
Proof.
  intros GA Hc0 HBr HBc.
  pose proof (good_repr A r c GA) as [HLA HVA]. pose proof GA as (_ & _ & HrA & HcA).
  destruct (ffge_run A B r c HLA HrA HcA Hc0) as (m & Em & Hm).
  exists (setm B m). split; [exact Em|]. intros HG.
  assert (HG' : forall i, i + 1 < c -> i + 1 < r ->
                  x_is_zero (iterU (c - 1) xge_step (ent (dm A) c) i i) = false).
  { intros i H1 H2. rewrite <- (HG i H1 H2). unfold entry, setm. cbn [dm dcol]. rewrite HBc.
    destruct Hm as [_ Hv]. symmetry. apply f_equal. apply Hv; lia. }
  pose proof (xge_lift r c (ent (dm A) c) (fm_of A) HVA HG') as Hlift.
  destruct (holds_fin_good m r c _ (iterU (c - 1) gestep (fm_of A)) B Hm
              (Hlift (c - 1) ltac:(lia)) HBr HBc) as [GB HB].
  assert (HP : forall i, i + 1 < c -> i + 1 < r -> iterU (c - 1) gestep (fm_of A) i i <> 0%Qc).
  { intros i H1 H2. specialize (HG' i H1 H2). rewrite Hlift in HG' by lia.
    cbn [x_is_zero] in HG'. now apply qc_is_zero_false in HG'. }
  destruct (gestep_inv r c (fm_of A) HP (c - 1) ltac:(lia)) as [HE HZ].
  split; [exact GB|]. split; [|split].
  - eapply re_trans; [exact HE|]. now apply re_refl.
  - intros j k Hkj Hk Hj. rewrite <- HB by lia. apply HZ; lia.
  - apply fm_eq_sym. exact HB.
Qed.

(* the statement in the partial-correctness form *)
Corollary ffge_guarded A B B' r c :
  fraction_free_gaussian_elimination A B = Ok B' ->
  good A r c -> 0 < c -> drow B = r -> dcol B = c ->
  (forall i, i + 1 < c -> i + 1 < r -> x_is_zero (entry B' i i) = false) ->
  good B' r c /\ row_equiv r c (fm_of A) (fm_of B') /\
  (forall j k, k < j -> k < c - 1 -> j < r -> fm_of B' j k = 0%Qc).
Proof.
  intros E GA Hc0 HBr HBc HG.
  destruct (ffge_spec A B r c GA Hc0 HBr HBc) as (B'' & E' & H).
  rewrite E in E'. inversion E'; subst B''.
  destruct (H HG) as (H1 & H2 & H3 & _). split; [|split]; assumption.
Qed.

(* the matrix of the system after i stages: the multipliers kept below the diagonal in the
   first i columns of the packed matrix stand for zeros *)
Definition ztr (i : N) (T : fm) : fm := fun a b => if (b <? a) && (b <? i) then 0%Qc else T a b.

Lemma ztr_step i T a b : ffstep i (ztr i T) a b = ztr (i + 1) (lustep i T) a b.
Proof.
  unfold ffstep, fsstep, ztr, lustep.
  destruct (N.eq_dec b i) as [->|ne]; ffj_cases; try reflexivity; unfold qcell, Qcdiv; ring.
Qed.

(* a solution of the system reached after i stages (packed matrix, forward-substituted
   right-hand side) is a solution of the system given *)
Lemma lu_sol n s Aq bq :
  (forall j, j < n -> iterU (n - 1) lustep Aq j j <> 0%Qc) ->
  forall i, i <= n - 1 -> forall z,
    fm_eq n s (fm_mul n (ztr i (iterU i lustep Aq)) z)
              (iterU i (fun t => fsstep t (iterU (n - 1) lustep Aq)) bq) ->
    fm_eq n s (fm_mul n Aq z) bq.
Proof.
  intros HT i Hle z H. set (T := iterU (n - 1) lustep Aq) in *.
  assert (E1 : forall t a, t < n - 1 -> ztr t (iterU t lustep Aq) a t = T a t).
  { intros t a Ht. unfold ztr, T. rewrite (lustep_frozen a t t ltac:(lia) (n - 1)) by lia. ffj_cases; reflexivity. }
  assert (E2 : forall t, t < n - 1 -> ztr t (iterU t lustep Aq) (t - 1) (t - 1) = T (t - 1) (t - 1)).
  { intros t Ht. unfold ztr, T.
    rewrite (lustep_frozen (t - 1) (t - 1) t ltac:(lia) (n - 1)) by lia. ffj_cases; reflexivity. }
  intros a c Ha Hc.
  rewrite <- (stages_sol n s (fun t => ztr t (iterU t lustep Aq))
                (fun t => iterU t (fun t => fsstep t T) bq) (n - 1)) with (i := i) (z := z);
    try assumption.
  - apply fm_mul_ext; intros k Hk; [|reflexivity]. unfold ztr. ffj_cases; reflexivity.
  - intros t Ht. split; [lia|]. rewrite E1, E2 by assumption. split; [apply HT; lia|].
    unfold qden. destruct (N.ltb_spec 0 t); [apply HT; lia | apply Q_apart_0_1].
  - intros t Ht a' b' _ _. rewrite iterU_succ. apply ztr_step.
  - intros t Ht a' c' _ _. rewrite iterU_succ. unfold fsstep. now rewrite !E1, E2 by assumption.
Qed.

(* total on an n x n matrix of numbers (n > 0); when the diagonal of the packed result has
   no zero, the result is a matrix of numbers, the (n-1)-th iterate of the stages over Q *)
Theorem fflu_spec A LU0 n :
  good A n n -> 0 < n -> drow LU0 = n -> dcol LU0 = n ->
  exists LU, fraction_free_LU A LU0 = Ok LU /\
    ((forall j, j < n -> x_is_zero (entry LU j j) = false) ->
     good LU n n /\ fm_eq n n (fm_of LU) (iterU (n - 1) lustep (fm_of A)) /\
     nonzero_diag n (fm_of LU)).
Proof.
  intros GA Hn Hr0 Hc0.
  pose proof (good_repr A n n GA) as [HLA HVA]. pose proof GA as (_ & _ & HrA & HcA).
  destruct (fflu_run A LU0 n HLA HrA Hn) as (m & Em & Hm).
  exists (setm LU0 m). split; [exact Em|]. intros HG.
  assert (HG' : forall j, j < n -> x_is_zero (iterU (n - 1) xlu_step (ent (dm A) n) j j) = false).
  { intros j Hj. rewrite <- (HG j Hj). unfold entry, setm. cbn [dm dcol]. rewrite Hc0.
    destruct Hm as [_ Hv]. symmetry. apply f_equal. apply Hv; lia. }
  pose proof (xlu_lift n (ent (dm A) n) (fm_of A) HVA HG') as Hlift.
  destruct (holds_fin_good m n n _ (iterU (n - 1) lustep (fm_of A)) LU0 Hm
              (Hlift (n - 1) ltac:(lia)) Hr0 Hc0) as [GLU HLU].
  split; [exact GLU|]. split; [now apply fm_eq_sym|].
  intros j Hj. rewrite <- HLU by assumption.
  specialize (HG' j Hj). rewrite Hlift in HG' by lia.
  cbn [x_is_zero] in HG'. now apply qc_is_zero_false in HG'.
Qed.

(* forward_substitution then back_substitution with the packed matrix of fraction_free_LU
   whose diagonal has no zero: the solution of A x = b *)
Lemma fflu_tail A LU b y0 x n s :
  good A n n -> 0 < n -> good LU n n ->
  fm_eq n n (fm_of LU) (iterU (n - 1) lustep (fm_of A)) -> nonzero_diag n (fm_of LU) ->
  good b n s -> drow y0 = n -> dcol y0 = s -> drow x = n -> dcol x = s ->
  exists y x', forward_substitution LU b y0 = Ok y /\ back_substitution LU y x = Ok x' /\
    good x' n s /\ fm_eq n s (fm_mul n (fm_of A) (fm_of x')) (fm_of b).
Proof.
  intros GA Hn GLU HLU HD Gb Hyr Hyc Hxr Hxc.
  set (T := iterU (n - 1) lustep (fm_of A)) in *.
  pose proof Gb as (_ & _ & Hrb & Hcb).
  pose proof (good_repr LU n n GLU) as [HLL HVL].
  pose proof (good_repr b n s Gb) as [HLb HVb].
  pose proof GLU as (_ & _ & HrL & HcL).
  destruct (fs_run LU b y0 n s HLL HcL HLb Hcb Hn) as (xm & Ey & Hy).
  assert (HT : forall j, j < n -> T j j <> 0%Qc).
  { intros j Hj. rewrite <- HLU by assumption. now apply HD. }
  assert (HLT : forall a c, a < n -> c < n -> ent (dm LU) n a c = Fin (T a c)).
  { intros a c Ha Hc. rewrite HVL by assumption. now rewrite HLU. }
  pose proof (xfs_lift n s (ent (dm LU) n) T (ent (dm b) s) (fm_of b) HLT HT HVb) as Hlift.
  set (Yq := iterU (n - 1) (fun t => fsstep t T) (fm_of b)) in *.
  destruct (holds_fin_good xm n s _ Yq y0 Hy (Hlift (n - 1) ltac:(lia)) Hyr Hyc) as [Gy HYq].
  destruct (back_substitution_rows LU _ x n s GLU Gy Hxr Hxc HD) as (x' & Ex & Gx & Hrows).
  exists (setm y0 xm), x'. split; [exact Ey|]. split; [exact Ex|]. split; [exact Gx|].
  apply (lu_sol n s (fm_of A) (fm_of b) HT (n - 1) ltac:(lia) (fm_of x')).
  fold T. fold Yq. intros r c Hr Hc.
  rewrite (HYq r c Hr Hc). rewrite <- (Hrows r c Hr Hc). unfold bs_row.
  assert (Ez : forall k, r <= k -> k < n -> ztr (n - 1) T r k = fm_of LU r k).
  { intros k Hk1 Hk2. unfold ztr. destruct (N.ltb_spec k r); [lia|]. cbn [andb].
    now rewrite HLU by lia. }
  unfold fm_mul. rewrite (sumN_around n r) by assumption.
  rewrite sumN_zero.
  - rewrite Ez by lia.
    rewrite (sumR_ext (r + 1) n _ (fun j => (fm_of LU r j * fm_of x' j c)%Qc)); [ring|].
    intros k Hk. now rewrite Ez by lia.
  - intros k Hk. unfold ztr.
    destruct (N.ltb_spec k r); [|lia]. destruct (N.ltb_spec k (n - 1)); [|lia]. cbn [andb]. ring.
Qed.

(* the main statement: on an n x n matrix A and an n x s right-hand side b of numbers (n > 0),
   when the diagonal of the packed matrix computed by fraction_free_LU has no zero (all the
   pivots, and the last diagonal entry by which back_substitution divides),
   fraction_free_LU_solve succeeds and returns a matrix of numbers x' with A x' = b *)
Theorem fflu_solve_spec A b x n s LU :
  good A n n -> good b n s -> 0 < n -> drow x = n -> dcol x = s ->
  fraction_free_LU A (mzero n n) = Ok LU ->
  (forall j, j < n -> x_is_zero (entry LU j j) = false) ->
  exists x', fraction_free_LU_solve A b x = Ok x' /\ good x' n s /\
    fm_eq n s (fm_mul n (fm_of A) (fm_of x')) (fm_of b).
Proof.
  intros GA Gb Hn Hxr Hxc ELU HG.
  pose proof GA as (_ & _ & HrA & HcA). pose proof Gb as (_ & _ & Hrb & Hcb).
  destruct (fflu_spec A (mzero n n) n GA Hn eq_refl eq_refl) as (LU' & ELU' & HLU').
  rewrite ELU in ELU'. inversion ELU'; subst LU'. clear ELU'.
  destruct (HLU' HG) as (GLU & HLU & HD).
  destruct (fflu_tail A LU b (mzero (drow b) (dcol b)) x n s GA Hn GLU HLU HD Gb Hrb Hcb Hxr Hxc)
    as (y & x' & Ey & Ex & Gx & Hx).
  exists x'. unfold fraction_free_LU_solve. rewrite HrA, HcA, ELU. cbn [bind].
  rewrite Ey. cbn [bind]. split; [exact Ex|]. split; assumption.
Qed.

(* the statement in the partial-correctness form *)
Corollary fflu_solve_guarded A b x x' n s LU :
  fraction_free_LU_solve A b x = Ok x' ->
  good A n n -> good b n s -> 0 < n -> drow x = n -> dcol x = s ->
  fraction_free_LU A (mzero n n) = Ok LU ->
  (forall j, j < n -> x_is_zero (entry LU j j) = false) ->
  good x' n s /\ fm_eq n s (fm_mul n (fm_of A) (fm_of x')) (fm_of b).
Proof.
  intros E GA Gb Hn Hxr Hxc ELU HG.
  destruct (fflu_solve_spec A b x n s LU GA Gb Hn Hxr Hxc ELU HG) as (x'' & E' & H).
  rewrite E in E'. inversion E'; subst x''. exact H.
Qed.
