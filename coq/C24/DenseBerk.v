(* C24 -- berkowitz / char_poly / det_berkowitz.  For orders 1 to 5 [char_poly] returns the
   coefficients of det (x I - A): the model's loops are evaluated on a matrix of variables and
   the two sides are compared as polynomials in x and the entries by `ring` (the recurrence of
   Samuelson and Berkowitz behind the loops is not proved for a general order).  For every
   order [det_berkowitz] is right wherever [char_poly] is: it returns (-1)^n times the
   constant coefficient. *)
From SE Require Import C24.DenseModel C24.DenseBase C24.DenseSpec C24.DetTheory.
From Coq Require Import Lia ZifyBool ZifyNat ZifyN.
Local Open Scope N_scope.
Local Open Scope res_scope.

(* evaluation of a coefficient list, highest coefficient first (Horner) *)
Definition peval (p : list Qc) (x : Qc) : Qc := fold_left (fun acc c => (acc * x + c)%Qc) p 0%Qc.

(* x I - A *)
Definition xI_minus (A : fm) (x : Qc) : fm := fun i j => ((if i =? j then x else 0) - A i j)%Qc.

Lemma peval_app p c x : peval (p ++ [c]) x = (peval p x * x + c)%Qc.
Proof. unfold peval. now rewrite fold_left_app. Qed.

Lemma peval_0 p : peval p 0 = nth (length p - 1) p 0%Qc.
Proof.
  destruct p as [|c p _] using rev_ind; [reflexivity|].
  rewrite peval_app, app_length. cbn [length].
  replace (length p + 1 - 1)%nat with (length p) by lia. rewrite nth_middle. ring.
Qed.

Lemma qpow_m1 n : qpow (- (1)) n = if N.odd (N.of_nat n) then (- (1))%Qc else 1%Qc.
Proof.
  induction n as [|n IH]; [reflexivity|].
  cbn [qpow]. rewrite IH, Nat2N.inj_succ, N.odd_succ, <- N.negb_odd.
  destruct (N.odd (N.of_nat n)); cbn [negb]; ring.
Qed.

Lemma det_xI_minus_0 n A : det n (xI_minus A 0) = (qpow (- (1)) n * det n A)%Qc.
Proof.
  rewrite <- det_scale_all. apply det_ext. intros i j _ _. unfold xI_minus.
  destruct (i =? j); ring.
Qed.

(* one polynomial per leading block *)
Lemma berkowitz_length A polys : berkowitz A = Ok polys -> lenN polys = dcol A.
Proof.
  unfold berkowitz. destruct (N.eqb_spec (dcol A) 0) as [|Hc]; [discriminate|]. intros E.
  apply bind_ok in E as (trs & _ & E). apply bind_ok in E as (a0 & _ & E).
  apply (for_range_inv_ok (fun i polys => lenN polys = i + 1)) in E; [lia | lia | reflexivity |].
  intros k s s' _ Hs Es.
  apply bind_ok in Es as ([n t] & _ & Es). apply bind_ok in Es as (p & _ & Es).
  apply bind_ok in Es as (b & _ & Es). injection Es as <-.
  unfold lenN in *. rewrite app_length. cbn [length]. lia.
Qed.

Theorem det_berkowitz_of_char_poly n A p :
  good A (N.of_nat n) (N.of_nat n) -> char_poly A = Ok p -> drow p = N.of_nat n + 1 ->
  Forall is_fin (dm p) -> (forall x, peval (map qv (dm p)) x = det n (xI_minus (fm_of A) x)) ->
  det_berkowitz A = Ok (Fin (det n (fm_of A))).
Proof.
  intros (_ & _ & _ & Hc) E Hr F H. unfold char_poly in E. unfold det_berkowitz.
  destruct (berkowitz A) as [polys| | |] eqn:EB; try discriminate. cbn [bind] in *.
  destruct (last_poly polys) as [c| | |]; try discriminate. cbn [bind] in *.
  injection E as <-. cbn [drow dm] in *.
  rewrite (berkowitz_length _ _ EB), Hc. rewrite rd_ok by lia. cbn [bind].
  (* the last coefficient is p(0) = det (-A) *)
  assert (nthx c (lenN c - 1) = Fin (qpow (- (1)) n * det n (fm_of A))) as ->.
  { unfold nthx. replace (N.to_nat (lenN c - 1)) with (length c - 1)%nat by (unfold lenN; lia).
    rewrite <- det_xI_minus_0, <- H, peval_0, map_length.
    change 0%Qc with (qv x0). rewrite map_nth. apply is_fin_qv.
    apply Forall_nth; [assumption | unfold lenN in Hr; lia]. }
  rewrite qpow_m1. destruct (N.odd (N.of_nat n)); rewrite ?xmul_m1_fin; do 2 f_equal; ring.
Qed.

Lemma good_entries A r c : good A r c ->
  exists qs, length qs = N.to_nat (r * c) /\ A = mkmat r c (map Fin qs).
Proof.
  intros (W & F & <- & <-). exists (map qv (dm A)). split.
  - rewrite map_length. unfold wf, lenN in W. lia.
  - replace (map Fin (map qv (dm A))) with (dm A); [now destruct A|]. rewrite map_map.
    apply nth_ext with (d := x0) (d' := Fin (qv x0)); [now rewrite map_length|].
    intros k Hk. rewrite (map_nth (fun a => Fin (qv a))). apply is_fin_qv.
    specialize (F (N.of_nat k)). unfold nthx in F. rewrite Nat2N.id in F. apply F. unfold lenN. lia.
Qed.

(* a list of known length is a list of variables *)
Ltac explode_list qs HL :=
  cbn in HL; repeat (destruct qs as [|? qs]; [discriminate HL|]); destruct qs; [clear HL | discriminate HL].

(* everything but the field operations on the entries is computed away *)
Ltac sym_eval := cbv -[Qcplus Qcmult Qcopp Qcminus Q2Qc qc0 qc1 qcm1].

Theorem char_poly_small n : (0 <? n)%nat && (n <=? 5)%nat = true ->
  forall A, good A (N.of_nat n) (N.of_nat n) ->
  exists p, char_poly A = Ok p /\ drow p = N.of_nat n + 1 /\ dcol p = 1 /\ Forall is_fin (dm p) /\
    forall x, peval (map qv (dm p)) x = det n (xI_minus (fm_of A) x).
Proof.
  destruct n as [|[|[|[|[|[|n]]]]]]; try discriminate; intros _ A G.
  all: destruct (good_entries _ _ _ G) as (qs & HL & ->); clear G; explode_list qs HL.
  all: eexists; split; [sym_eval; reflexivity|].
  all: split; [reflexivity|]; split; [reflexivity|]; split; [repeat constructor|].
  all: intros x; sym_eval; rewrite ?qc0_eq, ?qc1_eq, ?qcm1_eq; ring.
Qed.

Corollary det_berkowitz_small n : (0 <? n)%nat && (n <=? 5)%nat = true ->
  forall A, good A (N.of_nat n) (N.of_nat n) ->
  exists d, det_berkowitz A = Ok (Fin d) /\ d = det n (fm_of A).
Proof.
  intros Hn A G. destruct (char_poly_small n Hn A G) as (p & E & Hr & _ & F & H).
  eexists. split; [|reflexivity]. exact (det_berkowitz_of_char_poly n A p G E Hr F H).
Qed.
