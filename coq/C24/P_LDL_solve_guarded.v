(* C24 obligation: LDL_solve under the boolean guard guard_ldl *)
From SE Require Import C24.DenseModel C24.DenseBase C24.DenseSpec C24.DenseLDL.
Local Open Scope N_scope.
Local Open Scope res_scope.
Theorem C24_LDL_solve_guarded :
  forall A b x n s,
  good A n n -> good b n s -> drow x = n -> dcol x = s -> wf x -> 0 < n ->
  is_symmetric_dense A = Ok true -> guard_ldl A = true ->
  exists x', LDL_solve A b x = Ok x' /\ good x' n s /\
    fm_eq n s (fm_mul n (fm_of A) (fm_of x')) (fm_of b).
Proof. exact LDL_solve_guarded. Qed.
Print Assumptions C24_LDL_solve_guarded.
