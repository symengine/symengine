(* C24 -- the Cholesky factorisation of the model (cholesky).

   cholesky(A, L) first sets L = 0, then for i = 0 .. n-1
     for j < i:  L[i,j] = (1 / L[j,j]) * (A[i,j] - sum_{k<j} L[i,k] L[j,k])
     L[i,i] = sqrt(A[i,i] - sum_{k<i} L[i,k]^2)
   It reads the lower triangle and the diagonal of A only.  The square root of the model is
   exact: it is [ErrExn EXN_IRRATIONAL] unless the radicand is the square of a rational, and
   then it is the non-negative root (xsqrt_fin).  So the results are partial-correctness
   statements about a call that returned.

   The guard.  The numbers the algorithm divides by are the L[j,j] with j + 1 < n (used by
   the rows i > j; the last one is never divided by).  L[j,j] is written once, at the end of
   row j, and rows > j only write in their own row: the pivots the divisions saw are the
   diagonal entries of the L returned.  When one of them is zero the code computes 1/0 = zoo
   and the zero stays on the diagonal; when none is, every number computed is rational, L is
   lower triangular with a non-negative diagonal and the lower triangle of L * L^T is the
   lower triangle of A (all of A when A is symmetric). *)
From SE Require Import C24.DenseModel C24.DenseBase C24.DenseSpec C24.DenseSolve C24.DenseLU C24.DenseLDL.
From Coq Require Import Lia ZifyBool ZifyNat ZifyN.
Local Open Scope N_scope.
Local Open Scope res_scope.

Lemma xsqrt_fin q v : xsqrt (Fin q) = Ok v -> exists r, v = Fin r /\ (r * r)%Qc = q /\ (0 <= r)%Qc.
Proof.
  unfold xsqrt.
  destruct (z_is_square (Qnum q) && z_is_square (Z.pos (Qden q)))%bool eqn:E; [|discriminate].
  intros H; inversion H; subst v; clear H. eexists; split; [reflexivity|].
  apply andb_true_iff in E. destruct E as [E1 E2]. unfold z_is_square in *.
  apply andb_true_iff in E1, E2. destruct E1 as [_ E1], E2 as [_ E2]. apply Z.eqb_eq in E1, E2.
  split.
  - apply Qc_is_canon. unfold Qcmult. cbn [this Q2Qc].
    rewrite !Qred_correct.
    unfold Qeq, Qmult. cbn [Qnum Qden].
    rewrite E1. f_equal. rewrite Pos2Z.inj_mul. symmetry. exact E2.
  - unfold Qcle. cbn [this Q2Qc]. rewrite !Qred_correct.
    unfold Qle. cbn [Qnum Qden]. pose proof (Z.sqrt_nonneg (Qnum q)). lia.
Qed.

(* cholesky is the recurrence of DenseLDL.v with all weights 1 *)
Definition one (k : N) : Qc := 1%Qc.

Lemma chol_prod_sum n (Lf : fm) a b :
  fm_mul n Lf (fm_transpose Lf) a b = sumN n (fun k => (Lf a k * one k * Lf b k)%Qc).
Proof. unfold fm_mul, fm_transpose, one. apply sumN_ext. intros k _. ring. Qed.

Lemma chol_prod_sym n (Lf : fm) a b :
  fm_mul n Lf (fm_transpose Lf) a b = fm_mul n Lf (fm_transpose Lf) b a.
Proof. rewrite !chol_prod_sum. apply sumN_ext. intros k _. ring. Qed.

Definition ch_lsum (n : N) (lm : list qx) (i j : N) : res qx :=
  for_range 0 j (fun k sum =>
    do lik <- rd lm (i * n + k);
    do ljk <- rd lm (j * n + k);
    Ok (xadd sum (xmul lik ljk))) x0.

Definition ch_jbody (n : N) (am : list qx) (i j : N) (lm : list qx) : res (list qx) :=
  do sum <- ch_lsum n lm i j;
  do ljj <- rd lm (j * n + j);
  do aij <- rd am (i * n + j);
  wr lm (i * n + j) (xmul (xdiv x1 ljj) (xsub aij sum)).

Definition ch_dsum (n : N) (lm : list qx) (i : N) : res qx :=
  for_range 0 i (fun k sum =>
    do lik <- rd lm (i * n + k);
    Ok (xadd sum (xpow2 lik))) x0.

Definition ch_row (n : N) (am : list qx) (i : N) (lm : list qx) : res (list qx) :=
  do lm <- for_range 0 i (ch_jbody n am i) lm;
  do sum <- ch_dsum n lm i;
  do aii <- rd am (i * n + i);
  do r <- xsqrt (xsub aii sum);
  wr lm (i * n + i) r.

Lemma cholesky_eq A L :
  cholesky A L =
  let n := dcol A in
  do lm <- for_range 0 n (fun i lm =>
             for_range 0 n (fun j lm => wr lm (i * n + j) x0) lm) (dm L);
  do lm <- for_range 0 n (ch_row n (dm A)) lm;
  Ok (setm L lm).
Proof. reflexivity. Qed.

Lemma ch_lsum_x n lm i j :
  lenN lm = n * n -> i < n -> j < n ->
  ch_lsum n lm i j = Ok (xsum j (fun k => xmul (ent lm n i k) (ent lm n j k))).
Proof.
  intros HLl Hi Hj. unfold ch_lsum. apply acc_loop. intros k s Hk.
  rewrite rd_ok by (rewrite HLl; apply idx_lt; lia). cbn [bind].
  rewrite rd_ok by (rewrite HLl; apply idx_lt; lia). reflexivity.
Qed.

Lemma ch_dsum_x n lm i :
  lenN lm = n * n -> i < n -> ch_dsum n lm i = Ok (xsum i (fun k => xpow2 (ent lm n i k))).
Proof.
  intros HLl Hi. unfold ch_dsum. apply acc_loop. intros k s Hk.
  rewrite rd_ok by (rewrite HLl; apply idx_lt; lia). reflexivity.
Qed.

Lemma ch_jloop_fin n am lm i :
  gv n am -> gv n lm -> i < n ->
  (forall b, b < i -> ev lm n b b <> 0%Qc) ->
  exists lm', for_range 0 i (ch_jbody n am i) lm = Ok lm' /\ gv n lm' /\
    (forall a b, a < n -> b < n -> (a <> i \/ i <= b) -> ent lm' n a b = ent lm n a b) /\
    (forall b, b < i -> fact_eq (ev am n) (ev lm' n) one i b).
Proof.
  intros (HLa & HFa) (HLl & HFl) Hi Hnz.
  pose (Q := fun (j : N) (l : list qx) =>
    gv n l /\
    (forall a b, a < n -> b < n -> (a <> i \/ j <= b) -> ent l n a b = ent lm n a b) /\
    (forall b, b < j -> fact_eq (ev am n) (ev l n) one i b)).
  destruct (for_range_inv Q 0 i (ch_jbody n am i) lm) as (l' & E & HQ).
  - lia.
  - split; [split; assumption|]. split; [reflexivity|]. intros b Hb; lia.
  - intros j l1 [_ Hj] (G1 & Hfr & Heq). pose proof G1 as (HL1 & HF1).
    assert (Hp : ev l1 n j j <> 0%Qc).
    { rewrite (ev_same lm l1 n j j) by (apply Hfr; lia). now apply Hnz. }
    unfold ch_jbody.
    rewrite (ch_lsum_x n l1 i j) by (assumption || lia). cbn [bind].
    rewrite (xsum_fin j _ (fun k => (ev l1 n i k * one k * ev l1 n j k)%Qc)).
    2:{ intros k Hk. rewrite (fin_vec_ent l1 n n i k), (fin_vec_ent l1 n n j k) by (assumption || lia).
        unfold one. cbn [xmul]. f_equal. ring. }
    rewrite (rd_fin l1 n n j j) by (assumption || lia). cbn [bind].
    rewrite (rd_fin am n n i j) by (assumption || lia). cbn [bind].
    rewrite xdiv_one_fin by assumption.
    rewrite xsub_fin, xmul_fin.
    rewrite wr_ok by (rewrite HL1; apply idx_lt; lia).
    eexists; split; [reflexivity|].
    match goal with |- Q _ (upd l1 _ (Fin ?w)) => set (v := w) end.
    destruct (gv_upd n l1 i j v G1 Hi ltac:(lia)) as (G2 & U & Uv).
    set (l2 := upd l1 (N.to_nat (i * n + j)) (Fin v)) in *.
    assert (Hsame : forall a b, a < n -> b < n -> (a <> i \/ b <> j) -> ev l2 n a b = ev l1 n a b).
    { intros a b Ha Hb Hc. apply ev_same. now apply U. }
    unfold Q. split; [exact G2|]. split.
    + intros a b Ha Hb Hc. rewrite U by (try assumption; lia). apply Hfr; (assumption || lia).
    + intros b Hb. destruct (N.eq_dec b j) as [->|Hne].
      * unfold fact_eq. rewrite sumN_succ, Uv.
        rewrite (sumN_ext j _ (fun k => (ev l1 n i k * one k * ev l1 n j k)%Qc))
          by (intros k Hk; rewrite !Hsame by lia; reflexivity).
        rewrite (Hsame j j) by lia. unfold v, one. field. exact Hp.
      * apply (fact_eq_ext _ (ev l1 n) one); [|apply Heq; lia].
        intros k Hk. rewrite !Hsame by lia. auto.
  - destruct HQ as (G & Hfr & Heq).
    exists l'. split; [exact E|]. split; [exact G|]. split; [exact Hfr | exact Heq].
Qed.

Lemma ch_jloop_tot n am lm i :
  lenN am = n * n -> lenN lm = n * n -> i < n ->
  exists lm', for_range 0 i (ch_jbody n am i) lm = Ok lm' /\ lenN lm' = n * n /\
    (forall a b, a < n -> b < n -> a <> i -> ent lm' n a b = ent lm n a b).
Proof.
  intros HLa HLl Hi.
  pose (Q := fun (j : N) (l : list qx) =>
    lenN l = n * n /\ forall a b, a < n -> b < n -> a <> i -> ent l n a b = ent lm n a b).
  destruct (for_range_inv Q 0 i (ch_jbody n am i) lm) as (l' & E & HQ).
  - lia.
  - split; [assumption | reflexivity].
  - intros j l1 [_ Hj] (HL1 & Hfr). unfold ch_jbody.
    rewrite (ch_lsum_x n l1 i j HL1 Hi) by lia. cbn [bind].
    rewrite rd_ok by (rewrite HL1; apply idx_lt; lia). cbn [bind].
    rewrite rd_ok by (rewrite HLa; apply idx_lt; lia). cbn [bind].
    rewrite wr_ok by (rewrite HL1; apply idx_lt; lia).
    eexists; split; [reflexivity|]. split; [now rewrite lenN_upd|].
    intros a b Ha Hb Hne. rewrite (ent_upd l1 n n i j a b) by (assumption || lia).
    destruct (N.eqb_spec a i); [lia|]. cbn [andb]. now apply Hfr.
  - exists l'. split; [exact E | exact HQ].
Qed.

Lemma ch_row_fin n am lm i lm2 :
  gv n am -> gv n lm -> i < n ->
  (forall b, b < i -> ev lm n b b <> 0%Qc) ->
  ch_row n am i lm = Ok lm2 ->
  gv n lm2 /\
  (forall a b, a < n -> b < n -> (a <> i \/ i < b) -> ent lm2 n a b = ent lm n a b) /\
  (forall b, b <= i -> fact_eq (ev am n) (ev lm2 n) one i b) /\
  (0 <= ev lm2 n i i)%Qc.
Proof.
  intros Ga Gl Hi Hnz.
  destruct (ch_jloop_fin n am lm i Ga Gl Hi Hnz) as (lm' & E & Gl' & Hfr & Heq).
  unfold ch_row. rewrite E. cbn [bind].
  rewrite (ch_dsum_x n lm' i (proj1 Gl') Hi). cbn [bind].
  rewrite (xsum_fin i _ (fun k => (ev lm' n i k * one k * ev lm' n i k)%Qc)).
  2:{ intros k Hk. rewrite (fin_vec_ent lm' n n i k) by (apply Gl' || lia).
      unfold one. cbn [xpow2]. f_equal. ring. }
  rewrite (rd_fin am n n i i) by (apply Ga || assumption). cbn [bind].
  rewrite xsub_fin. intros H. apply bind_ok in H. destruct H as (r & Er & Hw).
  apply xsqrt_fin in Er. destruct Er as (q & -> & Hq & Hq0).
  rewrite wr_ok in Hw by (rewrite (proj1 Gl'); apply idx_lt; lia). inversion Hw; subst lm2; clear Hw.
  destruct (gv_upd n lm' i i q Gl' Hi Hi) as (G2 & U & Uv).
  set (l2 := upd lm' (N.to_nat (i * n + i)) (Fin q)) in *.
  assert (Hsame : forall a b, a < n -> b < n -> (a <> i \/ b <> i) -> ev l2 n a b = ev lm' n a b).
  { intros a b Ha Hb Hc. apply ev_same. now apply U. }
  split; [exact G2|]. split; [|split].
  - intros a b Ha Hb Hc. rewrite U by (try assumption; lia). apply Hfr; (assumption || lia).
  - intros b Hb. destruct (N.eq_dec b i) as [->|Hne].
    + unfold fact_eq. rewrite sumN_succ, Uv.
      rewrite (sumN_ext i _ (fun k => (ev lm' n i k * one k * ev lm' n i k)%Qc))
        by (intros k Hk; rewrite !Hsame by lia; reflexivity).
      replace (q * one i * q)%Qc with (q * q)%Qc by (unfold one; ring). rewrite Hq. ring.
    + apply (fact_eq_ext _ (ev lm' n) one); [|apply Heq; lia].
      intros k Hk. rewrite !Hsame by lia. auto.
  - now rewrite Uv.
Qed.

Lemma ch_row_frame n am lm i lm2 :
  lenN am = n * n -> lenN lm = n * n -> i < n ->
  ch_row n am i lm = Ok lm2 ->
  lenN lm2 = n * n /\
  (forall a b, a < n -> b < n -> a <> i -> ent lm2 n a b = ent lm n a b).
Proof.
  intros HLa HLl Hi.
  destruct (ch_jloop_tot n am lm i HLa HLl Hi) as (lm' & E & HL' & Hfr).
  unfold ch_row. rewrite E. cbn [bind].
  rewrite (ch_dsum_x n lm' i HL' Hi). cbn [bind].
  rewrite rd_ok by (rewrite HLa; apply idx_lt; lia). cbn [bind].
  intros H. apply bind_ok in H. destruct H as (r & _ & Hw).
  apply wr_inv in Hw. destruct Hw as (_ & ->).
  split; [now rewrite lenN_upd|].
  intros a b Ha Hb Hne. rewrite (ent_upd lm' n n i i a b) by (assumption || lia).
  destruct (N.eqb_spec a i); [lia|]. cbn [andb]. now apply Hfr.
Qed.

Definition ch_inv (n i : N) (lm : list qx) (A : fm) : Prop :=
  gv n lm /\
  (forall a b, a < i -> b <= a -> fact_eq A (ev lm n) one a b) /\
  (forall a b, a < n -> b < n -> (i <= a \/ a < b) -> ent lm n a b = x0) /\
  (forall b, b < i -> b + 1 < n -> ev lm n b b <> 0%Qc) /\
  (forall b, b < i -> (0 <= ev lm n b b)%Qc).

Lemma ch_loop n am lm lm' :
  gv n am -> gv n lm ->
  (forall a b, a < n -> b < n -> ent lm n a b = x0) ->
  for_range 0 n (ch_row n am) lm = Ok lm' ->
  lenN lm' = n * n /\
  (ch_inv n n lm' (ev am n) \/ exists b, b + 1 < n /\ ent lm' n b b = x0).
Proof.
  intros Ga Gl HZ E.
  pose (P := fun (i : N) (l : list qx) =>
    lenN l = n * n /\
    (ch_inv n i l (ev am n) \/ exists b, b < i /\ b + 1 < n /\ ent l n b b = x0)).
  assert (HP : P n lm').
  { apply (for_range_inv_ok P 0 n (ch_row n am) lm lm' ltac:(lia) E).
    - split; [apply Gl|]. left. split; [assumption|]. split; [intros; lia|].
      split; [intros a b Ha Hb _; now apply HZ|]. split; intros; lia.
    - intros i l1 l2 [_ Hi] (HL1 & HC) E2.
      destruct HC as [(G1 & I1 & I3 & I4 & I5)|(b & Hb & Hb1 & Hz)].
      + (* rational so far *)
        destruct (ch_row_fin n am l1 i l2 Ga G1 Hi) as (G2 & FL & Eq & Hpos);
          [intros b Hb; apply I4; lia | exact E2 |].
        split; [apply G2|].
        assert (HevL : forall a b, a < n -> b < n -> (a <> i \/ i < b) -> ev l2 n a b = ev l1 n a b).
        { intros a b Ha Hb Hc. apply ev_same. now apply FL. }
        destruct (pivot_case i n (ev l2 n i i)) as [[Hlt Hz]|Hnz].
        * right. exists i. split; [lia|]. split; [assumption|].
          rewrite (fin_vec_ent l2 n n i i (proj1 G2) (proj2 G2) Hi Hi), Hz. reflexivity.
        * left. split; [assumption|]. split; [|split; [|split]].
          -- intros a b Ha Hb. destruct (N.eq_dec a i) as [->|Hne]; [now apply Eq|].
             apply (fact_eq_ext _ (ev l1 n) one); [|apply I1; lia].
             intros k Hk. rewrite !HevL by lia. auto.
          -- intros a b Ha Hb Hc. rewrite FL by (try assumption; lia). apply I3; (assumption || lia).
          -- intros b Hb Hb1. destruct (N.eq_dec b i) as [->|Hne]; [now apply Hnz|].
             rewrite (HevL b b) by lia. apply I4; lia.
          -- intros b Hb. destruct (N.eq_dec b i) as [->|Hne]; [exact Hpos|].
             rewrite (HevL b b) by lia. apply I5; lia.
      + (* a zero pivot was met before *)
        destruct (ch_row_frame n am l1 i l2 (proj1 Ga) HL1 Hi E2) as (HL2 & Hfr).
        split; [assumption|]. right. exists b. split; [lia|]. split; [assumption|].
        rewrite Hfr by lia. exact Hz. }
  destruct HP as (HL' & HC). split; [assumption|].
  destruct HC as [HI|(b & _ & Hb1 & Hz)]; [left; exact HI | right; exists b; split; assumption].
Qed.

Lemma ch_final n lm (A Lf : fm) :
  ch_inv n n lm A -> (forall a b, Lf a b = ev lm n a b) ->
  lower_tri n Lf /\
  (forall j, j + 1 < n -> Lf j j <> 0%Qc) /\ (forall j, j < n -> (0 <= Lf j j)%Qc) /\
  (forall i j, j <= i -> i < n -> fm_mul n Lf (fm_transpose Lf) i j = A i j).
Proof.
  intros (G1 & I1 & I3 & I4 & I5) HLf.
  assert (HL : lower_tri n Lf).
  { intros i j Hi Hj Hij. rewrite HLf. unfold ev. rewrite I3 by (try assumption; lia). reflexivity. }
  split; [assumption|].
  split; [intros j Hj; rewrite HLf; apply I4; lia|].
  split; [intros j Hj; rewrite HLf; now apply I5|].
  intros i j Hji Hi. rewrite chol_prod_sum, (fact_sum n Lf one i j HL) by lia.
  rewrite <- (I1 i j Hi Hji). apply sumN_ext. intros k Hk. rewrite !HLf. reflexivity.
Qed.

(* a call of cholesky that returned: either all the pivots it divided by were non-zero and the
   result is the factor, all rational; or it met a zero pivot L[b,b] with rows below it, and
   that pivot is still there as a zero on the diagonal of L *)
Theorem cholesky_dichotomy A L0 n L :
  cholesky A L0 = Ok L ->
  good A n n -> wf L0 -> drow L0 = n -> dcol L0 = n ->
  wf L /\ drow L = n /\ dcol L = n /\
  ((fin_mat L /\ lower_tri n (fm_of L) /\
    (forall j, j + 1 < n -> fm_of L j j <> 0%Qc) /\ (forall j, j < n -> (0 <= fm_of L j j)%Qc) /\
    (forall i j, j <= i -> i < n ->
       fm_mul n (fm_of L) (fm_transpose (fm_of L)) i j = fm_of A i j))
   \/
   (exists b, b + 1 < n /\ entry L b b = x0)).
Proof.
  intros E HA WL HrL HcL.
  pose proof (gv_of_good A n HA) as Ga. destruct HA as (WA & FA & HrA & HcA).
  assert (HLl : lenN (dm L0) = n * n) by (unfold wf in WL; now rewrite WL, HrL, HcL).
  rewrite cholesky_eq in E. cbv zeta in E. rewrite HcA in E.
  destruct (init_fill n (fun _ _ => x0) (dm L0) HLl) as (l1 & E1 & HLl1 & Hl1).
  cbv beta in E1. rewrite E1 in E. cbn [bind] in E.
  assert (Gl1 : gv n l1).
  { apply (gv_of_ent n l1 _ HLl1 Hl1). intros a b _ _. exact I. }
  apply bind_ok in E. destruct E as (l2 & E2 & E3). inversion E3; subst L; clear E3.
  destruct (ch_loop n (dm A) l1 l2 Ga Gl1 Hl1 E2) as (HLl2 & HC).
  unfold wf, setm. cbn [dm drow dcol].
  split; [now rewrite HLl2, HrL, HcL|]. split; [assumption|]. split; [assumption|].
  destruct HC as [HI|(b & Hb & Hz)].
  - left. pose proof HI as (G1 & _). split; [apply G1|].
    destruct (ch_final n l2 (ev (dm A) n) (fm_of (mkmat (drow L0) (dcol L0) l2)) HI)
      as (K1 & K2 & K3 & K4).
    + intros a b. unfold fm_of, val, entry, ev. cbn [dm dcol]. now rewrite HcL.
    + split; [assumption|]. split; [assumption|]. split; [assumption|].
      intros i j Hji Hi. rewrite (K4 i j Hji Hi).
      unfold fm_of, val, entry, ev. now rewrite HcA.
  - right. exists b. split; [assumption|]. unfold entry. cbn [dm dcol]. now rewrite HcL.
Qed.

(* the guard read off the result *)
Theorem cholesky_partial A L0 n L :
  cholesky A L0 = Ok L ->
  good A n n -> wf L0 -> drow L0 = n -> dcol L0 = n ->
  (forall j, j + 1 < n -> x_is_zero (entry L j j) = false) ->
  good L n n /\ lower_tri n (fm_of L) /\
  (forall j, j < n -> (0 <= fm_of L j j)%Qc) /\
  (forall i j, j <= i -> i < n ->
     fm_mul n (fm_of L) (fm_transpose (fm_of L)) i j = fm_of A i j).
Proof.
  intros E HA WL HrL HcL Hdiag.
  destruct (cholesky_dichotomy A L0 n L E HA WL HrL HcL) as (W & Hr & Hc & HD).
  destruct HD as [(F & H1 & _ & H2 & H3)|(b & Hb & Hz)].
  - unfold good. tauto.
  - specialize (Hdiag b Hb). rewrite Hz in Hdiag. discriminate.
Qed.

Corollary cholesky_partial_sym A L0 n L :
  cholesky A L0 = Ok L ->
  good A n n -> wf L0 -> drow L0 = n -> dcol L0 = n ->
  (forall j, j + 1 < n -> x_is_zero (entry L j j) = false) ->
  (forall i j, i < n -> j < n -> fm_of A i j = fm_of A j i) ->
  good L n n /\ lower_tri n (fm_of L) /\
  (forall j, j < n -> (0 <= fm_of L j j)%Qc) /\
  fm_eq n n (fm_mul n (fm_of L) (fm_transpose (fm_of L))) (fm_of A).
Proof.
  intros E HA WL HrL HcL Hdiag Hsym.
  destruct (cholesky_partial A L0 n L E HA WL HrL HcL Hdiag) as (G & H1 & H2 & H3).
  split; [assumption|]. split; [assumption|]. split; [assumption|].
  intros i j Hi Hj. destruct (N.le_gt_cases j i) as [Hji|Hij].
  - now apply H3.
  - rewrite chol_prod_sym. rewrite H3 by (assumption || lia). now apply Hsym.
Qed.
