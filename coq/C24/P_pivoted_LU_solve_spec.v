(* C24 obligation: pivoted_LU_solve: solves A x = b or reports rank deficiency *)
From SE Require Import C24.DenseModel C24.DenseSpec C24.DenseLU3 C24.DenseFinal.
Local Open Scope N_scope.
Local Open Scope res_scope.
Theorem C24_pivoted_LU_solve_spec :
  forall A b x n s,
  good A n n -> good b n s -> drow x = n -> dcol x = s -> 0 < n ->
  (exists x', pivoted_LU_solve A b x = Ok x' /\ good x' n s /\
     fm_eq n s (fm_mul n (fm_of A) (fm_of x')) (fm_of b))
  \/ (pivoted_LU_solve A b x = ErrExn EXN_RANKDEF /\ lu_stuck n (fm_of A)).
Proof. exact pivoted_LU_solve_spec. Qed.
Print Assumptions C24_pivoted_LU_solve_spec.
