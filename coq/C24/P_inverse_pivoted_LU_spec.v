(* C24 obligation: inverse_pivoted_LU: A * B = I or reports rank deficiency *)
From SE Require Import C24.DenseModel C24.DenseSpec C24.DenseLU3 C24.DenseFinal.
Local Open Scope N_scope.
Local Open Scope res_scope.
Theorem C24_inverse_pivoted_LU_spec :
  forall A B n,
  good A n n -> drow B = n -> dcol B = n -> 0 < n ->
  (exists B', inverse_pivoted_LU A B = Ok B' /\ good B' n n /\
     fm_eq n n (fm_mul n (fm_of A) (fm_of B')) fm_id)
  \/ (inverse_pivoted_LU A B = ErrExn EXN_RANKDEF /\ lu_stuck n (fm_of A)).
Proof. exact inverse_pivoted_LU_spec. Qed.
Print Assumptions C24_inverse_pivoted_LU_spec.
