(* C24 obligation: cholesky of a symmetric matrix (rational square roots, non-zero pivots): L*L^T = A *)
From SE Require Import C24.DenseModel C24.DenseBase C24.DenseSpec C24.DenseLDL2.
Local Open Scope N_scope.
Local Open Scope res_scope.
Theorem C24_cholesky_partial_sym :
  forall A L0 n L,
  cholesky A L0 = Ok L ->
  good A n n -> wf L0 -> drow L0 = n -> dcol L0 = n ->
  (forall j, j + 1 < n -> x_is_zero (entry L j j) = false) ->
  (forall i j, i < n -> j < n -> fm_of A i j = fm_of A j i) ->
  good L n n /\ lower_tri n (fm_of L) /\
  (forall j, j < n -> (0 <= fm_of L j j)%Qc) /\
  fm_eq n n (fm_mul n (fm_of L) (fm_transpose (fm_of L))) (fm_of A).
Proof. exact cholesky_partial_sym. Qed.
Print Assumptions C24_cholesky_partial_sym.
