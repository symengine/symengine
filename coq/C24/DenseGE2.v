(* C24 -- pivoted fraction-free Gaussian elimination.  Same remark as for DenseGE.v: the
   routine of the library uses the column counter i where the pivot row `index` is meant
   (and B[i-1,i-1] where the previous pivot is meant).  This file defines the repaired
   routine (pivot row `index`, previous pivot d kept in the state), proves its total
   correctness on rational matrices of every size (row equivalent result in row echelon
   form on the first c-1 columns, all entries rational), and proves that under the
   computable guard [pffge_no_skip] the routine that exists computes the same thing.    *)
From SE Require Import C24.DenseLegacy C24.DenseModel C24.DenseBase C24.DenseSpec C24.DenseOps C24.DenseGJ C24.DenseGJ2 C24.DenseGE.
From Coq Require Import Lia ZifyBool ZifyNat ZifyN.
Local Open Scope N_scope.
Local Open Scope res_scope.

(*   RCP d; ...
     for (j = index + 1; j < row; j++) {
       for (k = i + 1; k < col; k++) {
         B[j*col+k] = sub(mul(B[index*col+i], B[j*col+k]), mul(B[j*col+i], B[index*col+k]));
         if (index > 0) B[j*col+k] = div(B[j*col+k], d); }
       B[j*col+i] = zero; }
     d = B[index*col+i]; index++;
   the extra component of the state is d (a null RCP until the first pivot has been
   processed: it is only read when index > 0)                                           *)
Definition pivoted_fraction_free_gaussian_elimination_fixed (A B : dmat) (pl0 : list (N * N))
  : res (dmat * list (N * N)) :=
  let row := drow A in
  let col := dcol A in
  if col =? 0 then ErrExn EXN_EMPTY else
  do st <- for_range 0 (col - 1) (fun i (st : est * qx) =>
    let '(m, pl, index, d) := st in
    if index =? row then Ok st else
    do ps <- pivot_step m pl row col index i;
    match ps with
    | None => Ok st
    | Some (m, pl) =>
        do m <- for_range (index + 1) row (fun j m =>
                  do m <- for_range (i + 1) col (fun k m =>
                            do bii <- rd m (index * col + i);
                            do bjk <- rd m (j * col + k);
                            do bji <- rd m (j * col + i);
                            do bik <- rd m (index * col + k);
                            do m <- wr m (j * col + k) (xsub (xmul bii bjk) (xmul bji bik));
                            if 0 <? index then
                              do v <- rd m (j * col + k);
                              wr m (j * col + k) (xdiv v d)
                            else Ok m) m;
                  wr m (j * col + i) x0) m;
        do d <- rd m (index * col + i);
        Ok (m, pl, index + 1, d)
    end) (dm A, pl0, 0, x0);
  let '(m, pl, _, _) := st in
  Ok (setm B m, pl).

(* the loops, named; [dv]: is there a division, [rdd]: how the divisor is obtained *)
Definition ffge_row (col p i j : N) (dv : bool) (rdd : list qx -> res qx) (m : list qx)
  : res (list qx) :=
  do m <- for_range (i + 1) col (fun k m =>
            do bii <- rd m (p * col + i);
            do bjk <- rd m (j * col + k);
            do bji <- rd m (j * col + i);
            do bik <- rd m (p * col + k);
            do m <- wr m (j * col + k) (xsub (xmul bii bjk) (xmul bji bik));
            if dv then
              do v <- rd m (j * col + k);
              do d <- rdd m;
              wr m (j * col + k) (xdiv v d)
            else Ok m) m;
  wr m (j * col + i) x0.

Definition ffge_elim (row col first p i : N) (dv : bool) (rdd : list qx -> res qx) (m : list qx)
  : res (list qx) :=
  for_range first row (fun j m => ffge_row col p i j dv rdd m) m.

(* the body of the column loop of the repaired routine *)
Definition ffge_body (row col : N) (i : N) (st : est * qx) : res (est * qx) :=
  let '(m, pl, index, d) := st in
  if index =? row then Ok st else
  do ps <- pivot_step m pl row col index i;
  match ps with
  | None => Ok st
  | Some (m, pl) =>
      do m <- ffge_elim row col (index + 1) index i (0 <? index) (fun _ => Ok d) m;
      do d <- rd m (index * col + i);
      Ok (m, pl, index + 1, d)
  end.

(* the body of the column loop of the routine that exists *)
Definition ffge_body_bug (row col : N) (i : N) (st : est) : res est :=
  let '(m, pl, index) := st in
  if index =? row then Ok st else
  do ps <- pivot_step m pl row col index i;
  match ps with
  | None => Ok st
  | Some (m, pl) =>
      do m <- ffge_elim row col (i + 1) i i (0 <? i) (fun m => rd m (i * col - col + i - 1)) m;
      Ok (m, pl, index + 1)
  end.

Lemma pffge_fixed_unfold A B pl0 :
  pivoted_fraction_free_gaussian_elimination_fixed A B pl0 =
  if dcol A =? 0 then ErrExn EXN_EMPTY else
  do st <- for_range 0 (dcol A - 1) (ffge_body (drow A) (dcol A)) (dm A, pl0, 0, x0);
  let '(m, pl, _, _) := st in Ok (setm B m, pl).
Proof. reflexivity. Qed.

Lemma pffge_unfold A B pl0 :
  pivoted_fraction_free_gaussian_elimination_v0 A B pl0 =
  if dcol A =? 0 then ErrExn EXN_EMPTY else
  do st <- for_range 0 (dcol A - 1) (ffge_body_bug (drow A) (dcol A)) (dm A, pl0, 0);
  let '(m, pl, _) := st in Ok (setm B m, pl).
Proof. reflexivity. Qed.

Definition fm_ffrow (p i j : N) (e : Qc) (M : fm) : fm :=
  fun a b => if a =? j
             then (if b <? i then M j b else if b =? i then 0
                   else (M p i * M j b - M j i * M p b) / e)%Qc
             else M a b.

Lemma ffge_row_spec m r c M p i j dv rdd e :
  repr m r c M -> p < r -> j < r -> j <> p -> i < c ->
  e <> 0%Qc -> (dv = false -> e = 1%Qc) ->
  (dv = true -> forall s M', repr s r c M' ->
     (forall a b, a < r -> b < c -> a <> j -> M' a b = M a b) -> rdd s = Ok (Fin e)) ->
  exists m', ffge_row c p i j dv rdd m = Ok m' /\ repr m' r c (fm_ffrow p i j e M).
Proof.
  intros HR Hp Hj Hne Hi He He1 Hrdd. unfold ffge_row.
  pose (F := fun (t a b : N) =>
    if (a =? j) && ((i <? b) && (b <? t))
    then ((M p i * M j b - M j i * M p b) / e)%Qc else M a b).
  apply (bind_ex _ _ (fun s => repr s r c (F c))).
  - apply (repr_loop r c F M); [lia | exact HR | | |].
    + intros a b _ _. unfold F. clear. ffj_cases; reflexivity.
    + intros t s [Ht1 Ht2] HRs. rewrite !(repr_rd s r c _ HRs) by lia. cbn [bind].
      rewrite !xmul_fin, xsub_fin.
      destruct (repr_wr s r c (F t) _ j t (F t p i * F t j t - F t j i * F t p t)%Qc
                  HRs Hj Ht2 (fun _ _ _ _ => eq_refl)) as (s1 & E1 & HR1).
      rewrite E1. cbn [bind]. destruct dv.
      * rewrite (repr_rd s1 r c _ HR1) by assumption. cbn [bind].
        rewrite (Hrdd eq_refl s1 _ HR1).
        2:{ intros a b _ _ Ha. unfold fm_set, F. ffj_cases; reflexivity. }
        cbn [bind]. rewrite xdiv_fin by assumption.
        apply (repr_wr s1 r c _ _ j t _ HR1 Hj Ht2).
        intros a b _ _. unfold fm_set, F. clear - Ht1 Ht2 Hne. ffj_cases; reflexivity.
      * exists s1. split; [reflexivity|]. apply (repr_ext _ _ _ _ _ HR1).
        intros a b _ _. unfold fm_set, F. rewrite (He1 eq_refl).
        clear - Ht1 Ht2 Hne. ffj_cases; try reflexivity. symmetry. apply qcdiv_1_r.
    + intros a b _ _. reflexivity.
  - intros s HRs. apply (repr_wr s r c (F c)); try assumption.
    intros a b _ Hb. unfold fm_set, F, fm_ffrow. clear - Hb Hi Hne. ffj_cases; reflexivity.
Qed.

(* every row a below the pivot row idx becomes  (M idx i / e) * row a - (M a i / e) * row idx *)
Definition fm_ffelim (idx i : N) (e : Qc) (M : fm) : fm :=
  fun a b => if a <=? idx then M a b
             else ((M idx i / e) * M a b + (- M a i / e) * M idx b)%Qc.

Lemma fm_ffelim_equiv r c idx i e M :
  idx < r -> e <> 0%Qc -> M idx i <> 0%Qc -> row_equiv r c M (fm_ffelim idx i e M).
Proof.
  intros Hidx He Hp. eapply re_trans.
  - apply (fm_comb_equiv r c idx (fun a => if a <=? idx then 1%Qc else (M idx i / e)%Qc)
             (fun a => if a <=? idx then 0%Qc else (- M a i / e)%Qc) M r Hidx); [|lia].
    intros a _. destruct (a <=? idx); [exact Q_apart_0_1 | now apply qcdiv_nz].
  - apply re_refl. intros a b Ha _. unfold fm_comb, fm_ffelim. ffj_cases; ring.
Qed.

(* ffge_row leaves the columns < i alone and writes 0 in column i: the full row operation
   when the rows from idx on are zero left of column i *)
Lemma ffge_elim_spec m r c M idx i dv rdd e :
  repr m r c M -> idx < r -> i < c ->
  e <> 0%Qc -> (dv = false -> e = 1%Qc) ->
  (forall a b, idx <= a -> a < r -> b < i -> M a b = 0%Qc) ->
  (dv = true -> forall s M', repr s r c M' ->
     (forall a b, a <= idx -> a < r -> b < c -> M' a b = M a b) -> rdd s = Ok (Fin e)) ->
  exists m', ffge_elim r c (idx + 1) idx i dv rdd m = Ok m' /\
    repr m' r c (fm_ffelim idx i e M).
Proof.
  intros HR Hidx Hi He He1 Hz Hrdd. unfold ffge_elim.
  pose (F := fun (t a b : N) => if a <? t then fm_ffelim idx i e M a b else M a b).
  apply (repr_loop r c F M); [lia | exact HR | | |].
  - intros a b _ _. unfold F, fm_ffelim. ffj_cases; reflexivity.
  - intros t s [Ht1 Ht] HRs.
    destruct (ffge_row_spec s r c (F t) idx i t dv rdd e HRs Hidx Ht ltac:(lia) Hi He He1)
      as (s' & E' & HR').
    { intros Hdv s0 M' HR0 H0. apply (Hrdd Hdv s0 M' HR0). intros a b Ha Har Hb.
      rewrite H0 by (assumption || lia). unfold F, fm_ffelim. ffj_cases; reflexivity. }
    exists s'. split; [exact E'|]. apply (repr_ext _ _ _ _ _ HR').
    intros a b _ Hb. unfold fm_ffrow, F, fm_ffelim.
    destruct (N.eqb_spec a t) as [->|nat]; [|ffj_cases; reflexivity].
    destruct (N.ltb_spec b i) as [Hbi|Hbi].
    + rewrite (Hz t b), (Hz idx b) by lia. ffj_cases; ring.
    + clear - Hbi Ht1 Ht. ffj_cases; unfold Qcdiv; ring.
  - intros a b Ha _. unfold F. ffj_cases; reflexivity.
Qed.

Definition ffge_inv (r c : N) (A0 : fm) (i : N) (st : est * qx) : Prop :=
  let '(m, pl, index, d) := st in
  exists M pc, repr m r c M /\ row_equiv r c A0 M /\ index = lenN pc /\
    echelon (fun x => x <> 0%Qc) N.lt r i M pc /\
    (0 < index -> exists dq, d = Fin dq /\ dq <> 0%Qc).

(* what relates the state of the repaired routine to the matrix of the routine that exists:
   when index has kept up with the column counter, d is the entry B[k-1,k-1] *)
Definition ffge_dcond (c k : N) (st : est * qx) : Prop :=
  let '(m, pl, index, d) := st in
  index <= k /\ (index = k -> 0 < k -> d = ent m c (k - 1) (k - 1)).

Lemma ffge_step r c A0 i st :
  i < c -> ffge_inv r c A0 i st ->
  exists st', ffge_body r c i st = Ok st' /\ ffge_inv r c A0 (i + 1) st' /\
    (ge_diag_step r c i (fst st) = true -> ffge_dcond c i st ->
     ffge_body_bug r c i (fst st) = Ok (fst st') /\ ffge_dcond c (i + 1) st').
Proof.
  destruct st as [[[m pl] index] d]. intros Hi (M & pc & HR & HE & -> & Hrr & Hd).
  unfold ffge_body, ffge_body_bug, ge_diag_step, ffge_dcond. cbn [fst].
  assert (Hle : lenN pc <= r) by (destruct Hrr as (_ & H & _); exact H).
  destruct (N.eqb_spec (lenN pc) r) as [e|ne].
  - exists (m, pl, lenN pc, d). split; [reflexivity|]. split.
    + exists M, pc.
      split; [assumption|]. split; [assumption|]. split; [reflexivity|]. split; [|assumption].
      apply echelon_skip; [assumption|]. intros; lia.
    + intros _ [Hk _]. split; [reflexivity|]. split; [lia | intros; lia].
  - assert (Hlt : lenN pc < r) by lia.
    destruct (pivot_step_echelon _ _ m pl r c M pc i HR Hrr Hlt Hi)
      as [[E Hz] | (m1 & pl1 & M1 & E & HR1 & HE1 & Hrr1 & Hp & Hup1)]; rewrite E; cbn [bind].
    + exists (m, pl, lenN pc, d). split; [reflexivity|]. split.
      * exists M, pc.
        split; [assumption|]. split; [assumption|]. split; [reflexivity|]. split; [|assumption].
        now apply echelon_skip.
      * intros _ [Hk _]. split; [reflexivity|]. split; [lia | intros; lia].
    + set (idx := lenN pc) in *.
      assert (Hex : exists e, e <> 0%Qc /\ ((0 <? idx) = false -> e = 1%Qc) /\
                              ((0 <? idx) = true -> d = Fin e)).
      { destruct (N.ltb_spec 0 idx) as [H0|H0].
        - destruct (Hd H0) as (dq & -> & Hdq). exists dq.
          split; [assumption|]. split; [discriminate | reflexivity].
        - exists 1%Qc. split; [|split; [reflexivity | discriminate]].
          intros H. now apply Q_apart_0_1 in H. }
      destruct Hex as (e & He & He1 & Hde).
      assert (Hz1 : forall a b, idx <= a -> a < r -> b < i -> M1 a b = 0%Qc).
      { destruct Hrr1 as (_ & _ & _ & Hz1). intros a b Ha Har Hb. apply Hz1; assumption. }
      destruct (ffge_elim_spec m1 r c M1 idx i (0 <? idx) (fun _ => Ok d) e HR1 Hlt Hi He He1 Hz1)
        as (m3 & E3 & HR3).
      { intros Hdv s M' _ _. now rewrite (Hde Hdv). }
      rewrite E3. cbn [bind].
      rewrite (repr_rd m3 r c _ HR3) by assumption. cbn [bind].
      set (M3 := fm_ffelim idx i e M1) in *.
      assert (H3p : M3 idx i = M1 idx i) by (unfold M3, fm_ffelim; now rewrite N.leb_refl).
      exists (m3, pl1, idx + 1, Fin (M3 idx i)). split; [reflexivity|]. split.
      * exists M3, (pc ++ [i]).
        split; [assumption|]. split; [|split; [|split]].
        -- eapply re_trans; [exact HE|]. eapply re_trans; [exact HE1|].
           now apply fm_ffelim_equiv.
        -- rewrite lenN_snoc. reflexivity.
        -- apply (echelon_newpivot _ _ r i M1 M3 pc Hrr1 Hlt); fold idx.
           ++ intros a b Ha Hb. unfold M3, fm_ffelim.
              destruct (N.leb_spec a idx); [reflexivity|].
              rewrite (Hz1 a b), (Hz1 idx b) by lia. ring.
           ++ now rewrite H3p.
           ++ intros a _ Ha. unfold M3, fm_ffelim.
              destruct (N.leb_spec a idx); [lia|]. unfold Qcdiv. ring.
        -- intros _. exists (M1 idx i). split; [now rewrite H3p | assumption].
      * (* on the diagonal (i = idx) the library's text differs only in reading the previous
           pivot from the matrix, B[idx-1,idx-1], instead of the state; by Hdc that is d, so
           its eliminating loop represents the same matrix and, by repr_unique, returns m3 *)
        intros Hdiag [Hk Hdc]. apply N.eqb_eq in Hdiag. subst i.
        destruct (ffge_elim_spec m1 r c M1 idx idx (0 <? idx)
                    (fun m => rd m (idx * c - c + idx - 1)) e HR1 Hlt Hi He He1 Hz1)
          as (m4 & E4 & HR4).
        { intros Hdv s M' HRs Hs. pose proof Hdv as Hdv'. apply N.ltb_lt in Hdv'.
          replace (idx * c - c + idx - 1) with ((idx - 1) * c + (idx - 1)) by nia.
          rewrite (repr_rd s r c M' HRs) by lia. rewrite Hs by lia.
          rewrite Hup1 by lia.
          destruct HR as [_ HV]. rewrite <- HV by lia.
          rewrite <- (Hdc eq_refl Hdv'). now rewrite (Hde Hdv). }
        assert (m4 = m3) by (apply (repr_unique m4 m3 r c _ _ HR4 HR3); intros a b _ _; reflexivity).
        subst m4. rewrite E4. cbn [bind]. split; [reflexivity|]. split; [lia|].
        intros _ _. replace (idx + 1 - 1) with idx by lia.
        destruct HR3 as [_ HV3]. now rewrite HV3.
Qed.

Lemma ffge_inv_init A r c pl0 : good A r c -> ffge_inv r c (fm_of A) 0 (dm A, pl0, 0, x0).
Proof.
  intros HG. exists (fm_of A), []. split; [now apply good_repr|]. split; [|split; [|split]].
  - apply re_refl. intros a b _ _. reflexivity.
  - reflexivity.
  - apply echelon_nil.
  - intros H. lia.
Qed.

(* the repaired pivoted_fraction_free_gaussian_elimination_v0 on an r x c matrix of rationals
   (c > 0): total, the result is a good r x c matrix (all entries rational: no division by
   zero happens), row equivalent to A, in row echelon form on the first c - 1 columns *)
Theorem pffge_fixed_spec A B r c :
  good A r c -> 0 < c -> drow B = r -> dcol B = c ->
  exists B' pl, pivoted_fraction_free_gaussian_elimination_fixed A B [] = Ok (B', pl) /\
    good B' r c /\ row_equiv r c (fm_of A) (fm_of B') /\ exists pc, is_ef r (c - 1) (fm_of B') pc.
Proof.
  intros HG Hc0 Hr Hc. rewrite pffge_fixed_unfold.
  pose proof HG as (_ & _ & HrA & HcA). rewrite HrA, HcA.
  destruct (N.eqb_spec c 0); [lia|].
  destruct (for_range_inv (ffge_inv r c (fm_of A)) 0 (c - 1) (ffge_body r c) (dm A, [], 0, x0))
    as ([[[m pl] index] d] & E & M & pc & HR & HE & _ & Hrr & _).
  - lia.
  - now apply ffge_inv_init.
  - intros i st [_ Hi] Hinv.
    destruct (ffge_step r c (fm_of A) i st ltac:(lia) Hinv) as (st' & E & H & _). now exists st'.
  - rewrite E. cbn [bind].
    destruct (repr_setm m r c M B _ HR Hr Hc HE) as (HG' & HE' & HF).
    exists (setm B m), pl. split; [reflexivity|]. split; [assumption|]. split; [assumption|].
    exists pc. apply is_ech_echelon. apply echelon_ext with (M := M); [|assumption].
    intros a b Ha Hb. apply HF; lia.
Qed.

(* the guard: replay the repaired routine and check that whenever a pivot is processed the
   pivot row `index` equals the column counter.  Computable on the input. *)
Definition pffge_no_skip (A : dmat) : bool :=
  let row := drow A in
  let col := dcol A in
  match for_range 0 (col - 1)
          (flagged (ffge_body row col) (fun k st => ge_diag_step row col k (fst st)))
          ((dm A, [], 0, x0), true) with
  | Ok (_, b) => b
  | _ => false
  end.

(* under the guard, on a matrix of rationals, the routine that exists and the repaired one
   compute the same result *)
Theorem pffge_guarded A B r c :
  good A r c -> 0 < c -> pffge_no_skip A = true ->
  pivoted_fraction_free_gaussian_elimination_v0 A B [] =
  pivoted_fraction_free_gaussian_elimination_fixed A B [].
Proof.
  intros HG Hc0. unfold pffge_no_skip. intros Hns. rewrite pffge_unfold, pffge_fixed_unfold.
  pose proof HG as (_ & _ & HrA & HcA). rewrite HrA, HcA in *.
  destruct (N.eqb_spec c 0); [lia|].
  destruct (for_range 0 (c - 1) (flagged (ffge_body r c) (fun k st => ge_diag_step r c k (fst st)))
              (dm A, [], 0, x0, true)) as [[s b]| | |] eqn:E; try discriminate.
  subst b. unfold for_range in *.
  pose (R := fun (k : N) (st : est * qx) (t : est) =>
    t = fst st /\ ffge_inv r c (fm_of A) k st /\ ffge_dcond c k st).
  destruct (for_up_flagged_sim R (ffge_body r c) (ffge_body_bug r c)
              (fun k st => ge_diag_step r c k (fst st)) _ _ _ _ _ (dm A, [], 0) E)
    as (Hf & t' & Hg & Ht' & _).
  - split; [reflexivity|]. split; [now apply ffge_inv_init|]. split; [lia | intros; lia].
  - intros k st t s1 Hk Hok (-> & Hinv & Hdc) Ef.
    destruct (ffge_step r c (fm_of A) k st ltac:(lia) Hinv) as (st' & E' & Hinv' & Hbug).
    rewrite E' in Ef. inversion Ef; subst s1.
    destruct (Hbug Hok Hdc) as [Eb Hdc'].
    exists (fst st'). split; [assumption|]. split; [reflexivity|]. split; assumption.
  - rewrite Hf, Hg. cbn [bind]. subst t'. destruct s as [[[m pl] index] d]. reflexivity.
Qed.

Corollary pffge_spec_guarded A B r c :
  good A r c -> 0 < c -> drow B = r -> dcol B = c -> pffge_no_skip A = true ->
  exists B' pl, pivoted_fraction_free_gaussian_elimination_v0 A B [] = Ok (B', pl) /\
    good B' r c /\ row_equiv r c (fm_of A) (fm_of B') /\ exists pc, is_ef r (c - 1) (fm_of B') pc.
Proof.
  intros HG Hc0 Hr Hc Hns. rewrite (pffge_guarded A B r c HG Hc0 Hns). now apply pffge_fixed_spec.
Qed.

Example pffge_no_skip_ex1 :
  pffge_no_skip (zmat 3 4 [2; 1; -1; 8;  -3; -1; 2; -11;  -2; 1; 2; -3]%Z) = true.
Proof. vm_compute. reflexivity. Qed.

Example pffge_no_skip_ex2 :
  pffge_no_skip (zmat 3 4 [1; 2; 3; 4;  2; 4; 7; 9;  3; 6; 8; 1]%Z) = false.
Proof. vm_compute. reflexivity. Qed.

Example pffge_skip_witness :
  let A := zmat 3 4 [1; 2; 3; 4;  2; 4; 7; 9;  3; 6; 8; 1]%Z in
  cell_is_zero (pivoted_fraction_free_gaussian_elimination_v0 A (mzero 3 4) []) 2 2 = Some false /\
  cell_is_zero (pivoted_fraction_free_gaussian_elimination_fixed A (mzero 3 4) []) 2 2 = Some true.
Proof. vm_compute. split; reflexivity. Qed.

Lemma pffge_model_is_fixed A B pl0 :
  pivoted_fraction_free_gaussian_elimination A B pl0
  = pivoted_fraction_free_gaussian_elimination_fixed A B pl0.
Proof. reflexivity. Qed.

Theorem pffge_spec A B r c :
  good A r c -> 0 < c -> drow B = r -> dcol B = c ->
  exists B' pl, pivoted_fraction_free_gaussian_elimination A B [] = Ok (B', pl) /\
    good B' r c /\ row_equiv r c (fm_of A) (fm_of B') /\ exists pc, is_ef r (c - 1) (fm_of B') pc.
Proof. intros. rewrite pffge_model_is_fixed. now apply pffge_fixed_spec. Qed.
