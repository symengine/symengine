(* C24 -- the unpivoted fraction-free routines, part 6: fraction_free_LDU.  The matrix U
   goes through the stages of the fraction-free elimination (every stage divides by the
   previous pivot `old`, 1 at the first stage); L collects the pivot columns before they
   are cleared, D the products of consecutive pivots.  Under the guard "the pivots (the
   diagonal entries of U' that have a row after them) are non-zero":
   L' D'^-1 U' = A, L' lower triangular, U' upper triangular, D' diagonal and invertible. *)
From SE Require Import C24.DenseModel C24.DenseBase C24.DenseSpec C24.DenseOps C24.DenseGJ2 C24.DenseGE C24.DenseSolve C24.DenseFF C24.DenseFF2 C24.DenseFF3.
From Coq Require Import Lia ZifyBool ZifyNat ZifyN.
Local Open Scope N_scope.
Local Open Scope res_scope.

Definition xldu_cell (old pkk uij ukj uik : qx) : qx :=
  xdiv (xsub (xmul pkk uij) (xmul ukj uik)) old.

(* row i of U, columns > k *)
Definition ldu_krow (col k i : N) (old : qx) (um : list qx) : res (list qx) :=
  for_range (k + 1) col (fun j um =>
    do ukk <- rd um (k * col + k);
    do uij <- rd um (i * col + j);
    do ukj <- rd um (k * col + j);
    do uik <- rd um (i * col + k);
    wr um (i * col + j) (xdiv (xsub (xmul ukk uij) (xmul ukj uik)) old)) um.

(* row i: L gets the entry of the pivot column, U is updated and its column k cleared *)
Definition ldu_row (col k i : N) (old : qx) (st : list qx * list qx) : res (list qx * list qx) :=
  let (lm, um) := st in
  do uik <- rd um (i * col + k);
  do lm <- wr lm (i * col + k) uik;
  do um <- ldu_krow col k i old um;
  do um <- wr um (i * col + k) x0;
  Ok (lm, um).

(* stage k on (L, D, U, old) *)
Definition ldu_stage (row col k : N) (st : list qx * list qx * list qx * qx)
  : res (list qx * list qx * list qx * qx) :=
  let '(lm, dmm, um, old) := st in
  do ukk <- rd um (k * col + k);
  do lm <- wr lm (k * col + k) ukk;
  do dmm <- wr dmm (k * col + k) (xmul old ukk);
  do st2 <- for_range (k + 1) row (fun i st2 => ldu_row col k i old st2) (lm, um);
  let (lm, um) := st2 in
  do old <- rd um (k * col + k);
  Ok (lm, dmm, um, old).

Lemma ffldu_unfold A L D U :
  fraction_free_LDU A L D U =
  if drow A =? 0 then ErrExn EXN_EMPTY else
  do lm <- for_range 0 (drow A) (fun i lm =>
             for_range 0 (drow A) (fun j lm =>
               if j =? i then wr lm (i * dcol A + i) x1 else wr lm (i * dcol A + j) x0) lm) (dm L);
  do dmm <- for_range 0 (drow A * drow A) (fun i dmm => wr dmm i x0) (dm D);
  do st <- for_range 0 (drow A - 1) (fun k st => ldu_stage (drow A) (dcol A) k st)
             (lm, dmm, dm A, x1);
  let '(lm, dmm, um, old) := st in
  do dmm <- wr dmm (drow A * dcol A - dcol A + drow A - 1) old;
  Ok (setm L lm, setm D dmm, setm U um).
Proof. reflexivity. Qed.

Lemma ldu_krow_spec um r c X k i old :
  holds um r c X -> k < i -> i < r -> k < c ->
  exists um', ldu_krow c k i old um = Ok um' /\
    holds um' r c (fun a b => if (a =? i) && (k <? b)
                              then xldu_cell old (X k k) (X i b) (X k b) (X i k)
                              else X a b).
Proof.
  intros HX Hki Hi Hk. unfold ldu_krow.
  apply (holds_loop r c
           (fun t a b => if (a =? i) && ((k <? b) && (b <? t))
                         then xldu_cell old (X k k) (X i b) (X k b) (X i k)
                         else X a b) X _ (k + 1) c _ um ltac:(lia) HX).
  - intros a b Ha Hb. ffj_cases; reflexivity.
  - intros t s [Ht1 Ht2] Hs.
    rewrite (holds_rd s r c _ Hs k k) by lia. cbn [bind].
    rewrite (holds_rd s r c _ Hs i t) by lia. cbn [bind].
    rewrite (holds_rd s r c _ Hs k t) by lia. cbn [bind].
    rewrite (holds_rd s r c _ Hs i k) by lia. cbn [bind].
    apply (holds_wr s r c _ _ i t _ Hs Hi Ht2).
    intros a b Ha Hb. unfold xldu_cell. ffj_cases; reflexivity.
  - intros a b Ha Hb. ffj_cases; reflexivity.
Qed.

(* the stage on U with the previous pivot given *)
Definition xldu_stepo (k : N) (old : qx) (X : xmat) : xmat :=
  fun a b => if k <? a
             then (if k <? b then xldu_cell old (X k k) (X a b) (X k b) (X a k)
                   else if b =? k then x0 else X a b)
             else X a b.

Lemma ldu_rows_spec lm um n Lc X k old :
  holds lm n n Lc -> holds um n n X -> k < n ->
  exists lm' um',
    for_range (k + 1) n (fun i st2 => ldu_row n k i old st2) (lm, um) = Ok (lm', um') /\
    holds lm' n n (fun a b => if (b =? k) && (k <? a) then X a k else Lc a b) /\
    holds um' n n (xldu_stepo k old X).
Proof.
  intros HL HX Hk.
  pose (P := fun (t : N) (st : list qx * list qx) =>
    holds (fst st) n n (fun a b => if (b =? k) && ((k <? a) && (a <? t)) then X a k else Lc a b) /\
    holds (snd st) n n
      (fun a b => if (k <? a) && (a <? t)
                  then (if k <? b then xldu_cell old (X k k) (X a b) (X k b) (X a k)
                        else if b =? k then x0 else X a b)
                  else X a b)).
  destruct (for_range_inv P (k + 1) n (fun i st2 => ldu_row n k i old st2) (lm, um))
    as ([lm' um'] & E & HPa & HPb).
  - lia.
  - split; cbn [fst snd].
    + apply (holds_ext _ _ _ _ _ HL). intros a b Ha Hb. ffj_cases; reflexivity.
    + apply (holds_ext _ _ _ _ _ HX). intros a b Ha Hb. ffj_cases; reflexivity.
  - intros t [l1 u1] [Ht1 Ht2] [Hl1 Hu1]. cbn [fst snd] in Hl1, Hu1. unfold ldu_row.
    rewrite (holds_rd u1 n n _ Hu1 t k) by lia. cbn [bind].
    match goal with |- context [wr l1 _ ?v] =>
      destruct (holds_set l1 n n _ t k v Hl1 Ht2 Hk) as (l2 & El & Hl2) end.
    rewrite El. cbn [bind].
    destruct (ldu_krow_spec u1 n n _ k t old Hu1 ltac:(lia) Ht2 Hk) as (u2 & Eu & Hu2).
    rewrite Eu. cbn [bind].
    destruct (holds_set u2 n n _ t k x0 Hu2 Ht2 Hk) as (u3 & Ew & Hu3).
    rewrite Ew. cbn [bind].
    exists (l2, u3). split; [reflexivity|]. split; cbn [fst snd].
    + apply (holds_ext _ _ _ _ _ Hl2). intros a b Ha Hb. cbv beta. ffj_cases; reflexivity.
    + apply (holds_ext _ _ _ _ _ Hu3). intros a b Ha Hb. cbv beta. ffj_cases; reflexivity.
  - cbn [fst snd] in HPa, HPb. exists lm', um'. split; [exact E|]. split.
    + apply (holds_ext _ _ _ _ _ HPa). intros a b Ha Hb. cbv beta. ffj_cases; reflexivity.
    + apply (holds_ext _ _ _ _ _ HPb). intros a b Ha Hb. unfold xldu_stepo. ffj_cases; reflexivity.
Qed.

Lemma ldu_stage_spec lm dmm um old n Lc Dc X k :
  holds lm n n Lc -> holds dmm n n Dc -> holds um n n X -> k < n ->
  exists lm' dmm' um',
    ldu_stage n n k (lm, dmm, um, old) = Ok (lm', dmm', um', X k k) /\
    holds lm' n n (fun a b => if (b =? k) && (k <=? a) then X a k else Lc a b) /\
    holds dmm' n n (fun a b => if (a =? k) && (b =? k) then xmul old (X k k) else Dc a b) /\
    holds um' n n (xldu_stepo k old X).
Proof.
  intros HL HD HX Hk. unfold ldu_stage.
  rewrite (holds_rd um n n X HX k k) by lia. cbn [bind].
  destruct (holds_set lm n n Lc k k (X k k) HL Hk Hk) as (l1 & El & Hl1). rewrite El. cbn [bind].
  destruct (holds_set dmm n n Dc k k (xmul old (X k k)) HD Hk Hk) as (d1 & Ed & Hd1).
  rewrite Ed. cbn [bind].
  destruct (ldu_rows_spec l1 um n _ X k old Hl1 HX Hk) as (l2 & u2 & E2 & Hl2 & Hu2).
  rewrite E2. cbn [bind].
  rewrite (holds_rd u2 n n _ Hu2 k k) by lia. cbn [bind].
  exists l2, d1, u2. split.
  - unfold xldu_stepo. destruct (N.ltb_spec k k); [lia | reflexivity].
  - split; [|split; assumption].
    apply (holds_ext _ _ _ _ _ Hl2). intros a b Ha Hb. cbv beta.
    destruct (N.leb_spec k a); ffj_cases; reflexivity.
Qed.

Definition xldu_old (k : N) (X : xmat) : qx := if k =? 0 then x1 else X (k - 1) (k - 1).
Definition xldu_step (k : N) (X : xmat) : xmat := xldu_stepo k (xldu_old k X) X.

(* L after k stages: the pivot columns 0 .. k-1 from the diagonal down, the identity elsewhere *)
Definition xldu_L (XA : xmat) (k : N) : xmat :=
  fun a b => if (b <? k) && (b <=? a) then iterU b xldu_step XA a b
             else if b =? a then x1 else x0.
(* D after k stages *)
Definition xldu_D (XA : xmat) (k : N) : xmat :=
  fun a b => if (a =? b) && (a <? k)
             then xmul (xldu_old a (iterU a xldu_step XA)) (iterU a xldu_step XA a a)
             else x0.

Theorem ffldu_run A L D U n :
  lenN (dm A) = n * n -> drow A = n -> dcol A = n -> 0 < n ->
  lenN (dm L) = n * n -> lenN (dm D) = n * n ->
  exists lm dmm um,
    fraction_free_LDU A L D U = Ok (setm L lm, setm D dmm, setm U um) /\
    holds lm n n (xldu_L (ent (dm A) n) (n - 1)) /\
    holds dmm n n (fun a b => if (a =? n - 1) && (b =? n - 1)
                              then xldu_old (n - 1) (iterU (n - 1) xldu_step (ent (dm A) n))
                              else xldu_D (ent (dm A) n) (n - 1) a b) /\
    holds um n n (iterU (n - 1) xldu_step (ent (dm A) n)).
Proof.
  intros HLA HrA HcA Hn HLL HLD. rewrite ffldu_unfold, HrA, HcA.
  destruct (N.eqb_spec n 0); [lia|].
  set (XA := ent (dm A) n).
  (* L := identity *)
  destruct (fill2 n n
    (fun i j lm => if j =? i then wr lm (i * n + i) x1 else wr lm (i * n + j) x0)
    (fun i j => i * n + j) (fun i j => if j =? i then x1 else x0) (n * n) (dm L))
    as (lm0 & E0 & HL0 & Hv0 & _).
  - exact HLL.
  - intros i j c _ _ _. destruct (N.eqb_spec j i); [subst|]; reflexivity.
  - intros. now apply idx_lt.
  - intros i j i' j'. apply rm_inj.
  - rewrite E0. cbn [bind].
    (* D := 0 *)
    destruct (zero_fill n n (dm D) HLD) as (dm0 & Ed0 & Hd0).
    rewrite Ed0. cbn [bind].
    pose (P := fun (k : N) (st : list qx * list qx * list qx * qx) =>
      let '(lm, dmm, um, old) := st in
      holds lm n n (xldu_L XA k) /\ holds dmm n n (xldu_D XA k) /\
      holds um n n (iterU k xldu_step XA) /\ old = xldu_old k (iterU k xldu_step XA)).
    destruct (for_range_inv P 0 (n - 1) (fun k st => ldu_stage n n k st) (lm0, dm0, dm A, x1))
      as ([[[lm dmm] um] old] & E & Hl & Hd & Hu & Hold).
    + lia.
    + split; [|split; [|split]].
      * split; [assumption|]. intros a b Ha Hb. unfold ent. rewrite (Hv0 a b Ha Hb).
        unfold xldu_L. ffj_cases; reflexivity.
      * apply (holds_ext _ _ _ _ _ Hd0). intros a b Ha Hb. unfold xldu_D. ffj_cases; reflexivity.
      * now apply holds_self.
      * reflexivity.
    + intros k [[[l1 d1] u1] o1] [_ Hk] (Hl1 & Hd1 & Hu1 & Ho1).
      destruct (ldu_stage_spec l1 d1 u1 o1 n _ _ _ k Hl1 Hd1 Hu1 ltac:(lia))
        as (l2 & d2 & u2 & E2 & Hl2 & Hd2 & Hu2).
      eexists. split; [exact E2|]. unfold P. rewrite iterU_succ.
      split; [|split; [|split]].
      * apply (holds_ext _ _ _ _ _ Hl2). intros a b Ha Hb. unfold xldu_L.
        destruct (N.leb_spec k a), (N.leb_spec b a); ffj_cases; reflexivity.
      * apply (holds_ext _ _ _ _ _ Hd2). intros a b Ha Hb. unfold xldu_D. rewrite Ho1. ffj_cases; reflexivity.
      * rewrite Ho1 in Hu2. exact Hu2.
      * unfold xldu_old at 1. destruct (N.eqb_spec (k + 1) 0); [lia|].
        replace (k + 1 - 1) with k by lia.
        unfold xldu_step, xldu_stepo. destruct (N.ltb_spec k k); [lia | reflexivity].
    + rewrite E. cbn [bind]. cbv beta iota.
      replace (n * n - n + n - 1) with ((n - 1) * n + (n - 1)) by nia.
      destruct (holds_set dmm n n _ (n - 1) (n - 1) old Hd ltac:(lia) ltac:(lia)) as (d3 & E3 & Hd3).
      rewrite E3. cbn [bind].
      exists lm, d3, um. split; [reflexivity|]. split; [assumption|]. split; [|assumption].
      apply (holds_ext _ _ _ _ _ Hd3). intros a b Ha Hb. cbv beta. rewrite Hold. reflexivity.
Qed.

Lemma xldu_cell_fin e p uij ukj uik :
  e <> 0%Qc ->
  xldu_cell (Fin e) (Fin p) (Fin uij) (Fin ukj) (Fin uik) = Fin ((p * uij - ukj * uik) / e)%Qc.
Proof. intros He. unfold xldu_cell. rewrite !xmul_fin, xsub_fin. now rewrite xdiv_fin. Qed.

Lemma xldu_frozen a b t0 :
  a <= t0 -> forall t X, t0 <= t -> iterU t xldu_step X a b = iterU t0 xldu_step X a b.
Proof. intros H. apply iterU_stable. intros t X Ht. unfold xldu_step, xldu_stepo. ffj_cases; reflexivity. Qed.

Lemma xldu_old_fin n X Z k :
  (forall a b, a < n -> b < n -> X a b = Fin (Z a b)) -> k < n ->
  xldu_old k X = Fin (qden k (Z (k - 1) (k - 1))).
Proof.
  intros H Hk. unfold xldu_old, qden.
  destruct (N.eqb_spec k 0), (N.ltb_spec 0 k); try lia; [reflexivity | apply H; lia].
Qed.

(* when the pivots read off the final U are non-zero, U goes through the stages of the
   elimination over Q *)
Lemma xldu_lift n XA Aq :
  (forall a b, a < n -> b < n -> XA a b = Fin (Aq a b)) ->
  (forall k, k + 1 < n -> x_is_zero (iterU (n - 1) xldu_step XA k k) = false) ->
  forall i, i <= n - 1 -> forall a b, a < n -> b < n ->
    iterU i xldu_step XA a b = Fin (iterU i gestep Aq a b).
Proof.
  intros HXA HG i. induction i as [|i IH] using N.peano_ind; intros Hle a b Ha Hb.
  - rewrite !iterU_0. now apply HXA.
  - rewrite <- N.add_1_r in *. rewrite !iterU_succ. specialize (IH ltac:(lia)).
    set (X := iterU i xldu_step XA) in *. set (Z := iterU i gestep Aq) in *.
    unfold xldu_step, xldu_stepo, gestep.
    destruct (N.ltb_spec i a) as [Hia|Hia]; [|now apply IH].
    destruct (N.ltb_spec i b) as [Hib|Hib].
    + rewrite (xldu_old_fin n X Z i IH) by lia. rewrite !IH by lia.
      rewrite xldu_cell_fin.
      * f_equal. unfold qcell, Qcdiv. ring.
      * unfold qden. destruct (N.ltb_spec 0 i) as [Hpos|_]; [|apply Q_apart_0_1].
        specialize (HG (i - 1) ltac:(lia)).
        rewrite (xldu_frozen (i - 1) (i - 1) i ltac:(lia) (n - 1)) in HG by lia.
        fold X in HG. rewrite IH in HG by lia. cbn [x_is_zero] in HG.
        now apply qc_is_zero_false in HG.
    + destruct (b =? i); [reflexivity | now apply IH].
Qed.

(* the three factors over Q *)
Definition ldu_e (Aq : fm) (k : N) : Qc := qden k (iterU k gestep Aq (k - 1) (k - 1)).
Definition ldu_Lq (n : N) (Aq : fm) : fm :=
  fun a b => if (b <? n - 1) && (b <=? a) then iterU b gestep Aq a b
             else if b =? a then 1%Qc else 0%Qc.
Definition ldu_Dq (n : N) (Aq : fm) : fm :=
  fun a b => if (a =? n - 1) && (b =? n - 1) then ldu_e Aq (n - 1)
             else if (a =? b) && (a <? n - 1) then (ldu_e Aq a * iterU a gestep Aq a a)%Qc
             else 0%Qc.

(* L D^-1 U = A, entry by entry: the sum telescopes *)
Lemma ldu_telescope n Aq :
  0 < n -> (forall k, k + 1 < n -> iterU (n - 1) gestep Aq k k <> 0%Qc) ->
  (forall k, k < n -> ldu_e Aq k <> 0%Qc) /\
  (forall a b, a < n -> b < a -> iterU (n - 1) gestep Aq a b = 0%Qc) /\
  forall i j, i < n -> j < n ->
    sumN n (fun k => (ldu_Lq n Aq i k * / ldu_Dq n Aq k k * iterU (n - 1) gestep Aq k j)%Qc) = Aq i j.
Proof.
  intros Hn HP.
  set (Z := fun k => iterU k gestep Aq).
  assert (Fp : forall k, k + 1 < n -> Z k k k <> 0%Qc).
  { intros k Hk. unfold Z. rewrite <- (gestep_frozen k k k ltac:(lia) (n - 1)) by lia. now apply HP. }
  assert (Fe : forall k, k < n -> ldu_e Aq k <> 0%Qc).
  { intros k Hk. unfold ldu_e, qden. destruct (N.ltb_spec 0 k) as [Hpos|_]; [|apply Q_apart_0_1].
    rewrite <- (gestep_frozen (k - 1) (k - 1) k ltac:(lia) (n - 1)) by lia. apply HP. lia. }
  assert (Fz : forall a b, a < n -> b < a -> Z (n - 1) a b = 0%Qc).
  { assert (HP' : forall i, i + 1 < n -> i + 1 < n -> iterU (n - 1) gestep Aq i i <> 0%Qc)
      by (intros i H _; now apply HP).
    destruct (gestep_inv n n Aq HP' (n - 1) ltac:(lia)) as [_ Hz].
    intros a b Ha Hb. apply Hz; lia. }
  assert (Frow : forall k j, k < n -> Z (n - 1) k j = Z k k j).
  { intros k j Hk. unfold Z. apply gestep_frozen; lia. }
  assert (Fstep : forall t i j, t < i -> t < j ->
            Z (t + 1) i j = ((Z t t t * Z t i j - Z t i t * Z t t j) / ldu_e Aq t)%Qc).
  { intros t i j Hti Htj. unfold Z. rewrite iterU_succ. unfold gestep at 1.
    destruct (N.ltb_spec t i); [|lia]. destruct (N.ltb_spec t j); [|lia]. reflexivity. }
  assert (Fe1 : forall t, ldu_e Aq (t + 1) = Z t t t).
  { intros t. unfold ldu_e, qden. destruct (N.ltb_spec 0 (t + 1)); [|lia].
    replace (t + 1 - 1) with t by lia. rewrite iterU_succ. unfold gestep.
    destruct (N.ltb_spec t t); [lia | reflexivity]. }
  split; [exact Fe|]. split; [exact Fz|].
  intros i j Hi Hj.
  set (f := fun k => (ldu_Lq n Aq i k * / ldu_Dq n Aq k k * iterU (n - 1) gestep Aq k j)%Qc).
  (* the partial sums *)
  assert (Hpart : forall t, t <= i -> t <= j ->
            sumN t f = (Aq i j - Z t i j / ldu_e Aq t)%Qc).
  { induction t as [|t IH] using N.peano_ind; intros Hti Htj.
    - rewrite sumN_0. unfold Z. rewrite iterU_0. unfold ldu_e, qden. cbn [N.ltb N.compare].
      field. apply Q_apart_0_1.
    - rewrite <- N.add_1_r in *. rewrite sumN_succ, IH by lia.
      rewrite Fe1. rewrite (Fstep t i j) by lia.
      unfold f, ldu_Lq, ldu_Dq.
      destruct (N.ltb_spec t (n - 1)); [|lia]. destruct (N.leb_spec t i); [|lia].
      destruct (N.eqb_spec t (n - 1)); [lia|]. rewrite N.eqb_refl. cbn [andb].
      fold (Z (n - 1)). rewrite (Frow t j) by lia. fold (Z t).
      field; repeat split; first [apply Fp; lia | apply Fe; lia]. }
  destruct (N.le_gt_cases i j) as [Hij|Hij].
  - (* the last term is on the diagonal of L *)
    rewrite (sumN_around n i) by assumption. rewrite (Hpart i) by lia.
    rewrite sumR_zero.
    + unfold f, ldu_Lq, ldu_Dq. destruct (N.leb_spec i i); [|lia]. rewrite N.eqb_refl.
      fold (Z (n - 1)). rewrite (Frow i j) by lia.
      destruct (N.ltb_spec i (n - 1)) as [Hlt|Hge].
      * destruct (N.eqb_spec i (n - 1)); [lia|]. cbn [andb]. fold (Z i).
        field; repeat split; first [apply Fp; lia | apply Fe; lia].
      * destruct (N.eqb_spec i (n - 1)) as [e|]; [|lia]. cbn [andb]. rewrite <- e.
        field; repeat split; first [apply Fp; lia | apply Fe; lia].
    + intros k Hk. unfold f, ldu_Lq.
      destruct (N.leb_spec k i); [lia|]. rewrite andb_false_r.
      destruct (N.eqb_spec k i); [lia|]. ring.
  - (* the last term is on the diagonal of U *)
    rewrite (sumN_around n j) by assumption. rewrite (Hpart j) by lia.
    rewrite sumR_zero.
    + unfold f, ldu_Lq, ldu_Dq.
      destruct (N.ltb_spec j (n - 1)); [|lia]. destruct (N.leb_spec j i); [|lia].
      destruct (N.eqb_spec j (n - 1)); [lia|]. rewrite N.eqb_refl. cbn [andb].
      fold (Z (n - 1)). rewrite (Frow j j) by lia. fold (Z j).
      field; repeat split; first [apply Fp; lia | apply Fe; lia].
    + intros k Hk. unfold f. fold (Z (n - 1)). rewrite (Fz k j) by lia. ring.
Qed.

(* the inverse of a diagonal matrix *)
Definition fm_dinv (D : fm) : fm := fun a b => if a =? b then (/ D a a)%Qc else 0%Qc.

(* total on an n x n matrix of numbers (n > 0) with well-formed n x n matrices for L and D;
   when the pivots (the diagonal entries of U' that have a row after them) are non-zero,
   the three results are matrices of numbers, L' is lower triangular, U' upper triangular,
   D' diagonal with a non-zero diagonal, and L' D'^-1 U' = A *)
Theorem ffldu_spec A L D U n :
  good A n n -> 0 < n ->
  wf L -> drow L = n -> dcol L = n -> wf D -> drow D = n -> dcol D = n ->
  drow U = n -> dcol U = n ->
  exists L' D' U', fraction_free_LDU A L D U = Ok (L', D', U') /\
    ((forall k, k + 1 < n -> x_is_zero (entry U' k k) = false) ->
     good L' n n /\ good D' n n /\ good U' n n /\
     lower_tri n (fm_of L') /\ upper_tri n (fm_of U') /\
     (forall a b, a < n -> b < n -> a <> b -> fm_of D' a b = 0%Qc) /\
     nonzero_diag n (fm_of D') /\
     fm_eq n n (fm_mul n (fm_of L') (fm_mul n (fm_dinv (fm_of D')) (fm_of U'))) (fm_of A)).
Proof.
  intros GA Hn WL HLr HLc WD HDr HDc HUr HUc.
  pose proof (good_repr A n n GA) as [HLA HVA]. pose proof GA as (_ & _ & HrA & HcA).
  assert (HLL : lenN (dm L) = n * n) by (unfold wf in WL; now rewrite WL, HLr, HLc).
  assert (HLD : lenN (dm D) = n * n) by (unfold wf in WD; now rewrite WD, HDr, HDc).
  destruct (ffldu_run A L D U n HLA HrA HcA Hn HLL HLD) as (lm & dmm & um & E & Hl & Hd & Hu).
  exists (setm L lm), (setm D dmm), (setm U um). split; [exact E|]. intros HG.
  set (XA := ent (dm A) n) in *. set (Aq := fm_of A) in *.
  assert (HG' : forall k, k + 1 < n -> x_is_zero (iterU (n - 1) xldu_step XA k k) = false).
  { intros k Hk. rewrite <- (HG k Hk). unfold entry, setm. cbn [dm dcol]. rewrite HUc.
    destruct Hu as [_ Hv]. symmetry. apply f_equal. apply Hv; lia. }
  pose proof (xldu_lift n XA Aq HVA HG') as Hlift.
  assert (HP : forall k, k + 1 < n -> iterU (n - 1) gestep Aq k k <> 0%Qc).
  { intros k Hk. specialize (HG' k Hk). rewrite Hlift in HG' by lia.
    cbn [x_is_zero] in HG'. now apply qc_is_zero_false in HG'. }
  destruct (ldu_telescope n Aq Hn HP) as (Fe & Fz & Hsum).
  (* the three matrices are matrices of numbers *)
  destruct (holds_fin_good um n n _ (iterU (n - 1) gestep Aq) U Hu (Hlift (n - 1) ltac:(lia)) HUr HUc)
    as [GU HU].
  assert (HLf : forall a b, a < n -> b < n -> xldu_L XA (n - 1) a b = Fin (ldu_Lq n Aq a b)).
  { intros a b Ha Hb. unfold xldu_L, ldu_Lq.
    destruct ((b <? n - 1) && (b <=? a)) eqn:Et.
    - apply andb_true_iff in Et. destruct Et as [Et _]. apply N.ltb_lt in Et.
      apply Hlift; lia.
    - destruct (b =? a); reflexivity. }
  destruct (holds_fin_good lm n n _ (ldu_Lq n Aq) L Hl HLf HLr HLc) as [GL HL].
  assert (HDf : forall a b, a < n -> b < n ->
            (if (a =? n - 1) && (b =? n - 1)
             then xldu_old (n - 1) (iterU (n - 1) xldu_step XA)
             else xldu_D XA (n - 1) a b) = Fin (ldu_Dq n Aq a b)).
  { intros a b Ha Hb. unfold ldu_Dq. destruct ((a =? n - 1) && (b =? n - 1)).
    - unfold ldu_e. apply (xldu_old_fin n); [apply Hlift; lia | lia].
    - unfold xldu_D. destruct ((a =? b) && (a <? n - 1)) eqn:Et; [|reflexivity].
      apply andb_true_iff in Et. destruct Et as [_ Et]. apply N.ltb_lt in Et.
      rewrite (xldu_old_fin n _ (iterU a gestep Aq) a) by (try (apply Hlift; lia); lia).
      rewrite Hlift by lia. rewrite xmul_fin. reflexivity. }
  destruct (holds_fin_good dmm n n _ (ldu_Dq n Aq) D Hd HDf HDr HDc) as [GD HD].
  split; [exact GL|]. split; [exact GD|]. split; [exact GU|].
  assert (HDd : forall k, k < n -> ldu_Dq n Aq k k <> 0%Qc).
  { intros k Hk. unfold ldu_Dq. rewrite N.eqb_refl.
    destruct (N.eqb_spec k (n - 1)) as [->|ne]; cbn [andb]; [apply Fe; lia|].
    destruct (N.ltb_spec k (n - 1)); [|lia].
    intros H0. apply Qcmult_integral in H0. destruct H0 as [H0|H0].
    - now apply (Fe k Hk).
    - revert H0. rewrite <- (gestep_frozen k k k ltac:(lia) (n - 1)) by lia. apply HP. lia. }
  split; [|split; [|split; [|split]]].
  - intros i j Hi Hj Hij. rewrite <- HL by assumption. unfold ldu_Lq.
    destruct (N.leb_spec j i); [lia|]. rewrite andb_false_r.
    destruct (N.eqb_spec j i); [lia | reflexivity].
  - intros i j Hi Hj. rewrite <- HU by lia. apply Fz; lia.
  - intros a b Ha Hb Hab. rewrite <- HD by assumption. unfold ldu_Dq.
    destruct (N.eqb_spec a b); [contradiction|]. cbn [andb].
    destruct (N.eqb_spec a (n - 1)), (N.eqb_spec b (n - 1)); cbn [andb]; try reflexivity. lia.
  - intros k Hk. rewrite <- HD by assumption. now apply HDd.
  - intros i j Hi Hj. rewrite <- (Hsum i j Hi Hj). unfold fm_mul.
    apply sumN_ext. intros k Hk. rewrite <- (HL i k) by assumption.
    rewrite (sumN_single n _ k Hk).
    + unfold fm_dinv. rewrite N.eqb_refl. rewrite <- (HD k k), <- (HU k j) by assumption. ring.
    + intros l Hl' Hne. unfold fm_dinv. destruct (N.eqb_spec k l); [congruence | ring].
Qed.

(* the statement in the partial-correctness form *)
Corollary ffldu_guarded A L D U L' D' U' n :
  fraction_free_LDU A L D U = Ok (L', D', U') ->
  good A n n -> 0 < n ->
  wf L -> drow L = n -> dcol L = n -> wf D -> drow D = n -> dcol D = n ->
  drow U = n -> dcol U = n ->
  (forall k, k + 1 < n -> x_is_zero (entry U' k k) = false) ->
  good L' n n /\ good D' n n /\ good U' n n /\
  lower_tri n (fm_of L') /\ upper_tri n (fm_of U') /\
  (forall a b, a < n -> b < n -> a <> b -> fm_of D' a b = 0%Qc) /\
  nonzero_diag n (fm_of D') /\
  fm_eq n n (fm_mul n (fm_of L') (fm_mul n (fm_dinv (fm_of D')) (fm_of U'))) (fm_of A).
Proof.
  intros E GA Hn WL HLr HLc WD HDr HDc HUr HUc HG.
  destruct (ffldu_spec A L D U n GA Hn WL HLr HLc WD HDr HDc HUr HUc)
    as (L'' & D'' & U'' & E' & H).
  rewrite E in E'. inversion E'; subst L'' D'' U''. exact (H HG).
Qed.

(* the guard holds on a 3 x 3 matrix whose leading minors are not zero, and the three
   factors are matrices of numbers *)
Definition ldu_guard_of (r : res (dmat * dmat * dmat)) (n : N) : bool :=
  match r with
  | Ok (L', D', U') =>
      forallb (fun k => negb (x_is_zero (entry U' (N.of_nat k) (N.of_nat k)))) (seq 0 (N.to_nat (n - 1))) &&
      forallb (fun e => match e with Fin _ => true | _ => false end) (dm L' ++ dm D' ++ dm U')
  | _ => false
  end.

Example ffldu_ex :
  ldu_guard_of (fraction_free_LDU (zmat 3 3 [2; 1; -1;  -3; -1; 2;  -2; 1; 2]%Z)
                  (mzero 3 3) (mzero 3 3) (mzero 3 3)) 3 = true.
Proof. vm_compute. reflexivity. Qed.
