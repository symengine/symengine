(* C24 -- the classical theory of the determinant [det] of DenseSpec.v (cofactor expansion
   along the first row) on matrices-as-functions: extensionality on the n x n window,
   linearity in each row, the alternating property, the effect of the three elementary row
   operations, triangular matrices, and the Schur-complement step used by the fraction-free
   (Bareiss) elimination.  Pure mathematics over Q; no reference to the model's loops. *)
From SE Require Import C24.DenseModel C24.DenseSpec.
From Coq Require Import Lia ZifyBool ZifyNat ZifyN.
Local Open Scope N_scope.

Definition sgn (k : N) : Qc := if N.even k then 1%Qc else (- (1))%Qc.

Lemma sgn_0 : sgn 0 = 1%Qc.
Proof. reflexivity. Qed.

Lemma sgn_succ k : sgn (k + 1) = (- sgn k)%Qc.
Proof.
  unfold sgn. rewrite N.add_1_r, N.even_succ, <- N.negb_even.
  destruct (N.even k); cbn [negb]; ring.
Qed.

Lemma sgn_sq k : (sgn k * sgn k = 1)%Qc.
Proof. unfold sgn. destruct (N.even k); ring. Qed.

Lemma altsum_S k f :
  altsum (S k) f = (altsum k f + sgn (N.of_nat k) * f (N.of_nat k))%Qc.
Proof. cbn [altsum]. unfold sgn. destruct (N.even (N.of_nat k)); ring. Qed.

Lemma altsum_ext n f g : (forall k, k < N.of_nat n -> f k = g k) -> altsum n f = altsum n g.
Proof.
  induction n as [|n IH]; intros H; [reflexivity|].
  rewrite !altsum_S. rewrite IH by (intros k Hk; apply H; lia). rewrite H by lia. reflexivity.
Qed.

Lemma altsum_zero n f : (forall k, k < N.of_nat n -> f k = 0%Qc) -> altsum n f = 0%Qc.
Proof.
  induction n as [|n IH]; intros H; [reflexivity|].
  rewrite altsum_S. rewrite IH by (intros k Hk; apply H; lia). rewrite H by lia. ring.
Qed.

Lemma altsum_plus n f g : altsum n (fun k => (f k + g k)%Qc) = (altsum n f + altsum n g)%Qc.
Proof. induction n as [|n IH]; [cbn [altsum]; ring|]. rewrite !altsum_S, IH. ring. Qed.

Lemma altsum_scale n c f : altsum n (fun k => (c * f k)%Qc) = (c * altsum n f)%Qc.
Proof. induction n as [|n IH]; [cbn [altsum]; ring|]. rewrite !altsum_S, IH. ring. Qed.

Lemma altsum_opp n f : altsum n (fun k => (- f k)%Qc) = (- altsum n f)%Qc.
Proof. induction n as [|n IH]; [cbn [altsum]; ring|]. rewrite !altsum_S, IH. ring. Qed.

(* a sum with a single non-zero term *)
Lemma altsum_single n f k0 :
  k0 < N.of_nat n -> (forall k, k < N.of_nat n -> k <> k0 -> f k = 0%Qc) ->
  altsum n f = (sgn k0 * f k0)%Qc.
Proof.
  induction n as [|n IH]; intros Hk H; [lia|].
  rewrite altsum_S. destruct (N.eq_dec k0 (N.of_nat n)) as [->|ne].
  - rewrite altsum_zero by (intros k Hk'; apply H; lia). ring.
  - rewrite IH by (try lia; intros k Hk' Hne; apply H; lia).
    rewrite (H (N.of_nat n)) by lia. ring.
Qed.

Lemma altsum_first n f :
  (forall k, 0 < k -> k < N.of_nat (S n) -> f k = 0%Qc) -> altsum (S n) f = f 0.
Proof.
  intros H. rewrite (altsum_single (S n) f 0) by (try lia; intros k Hk Hne; apply H; lia).
  rewrite sgn_0. ring.
Qed.

(* the double alternating sum of a "symmetric" family cancels: the terms (j, k) with j <= k
   and (k + 1, j) have opposite signs *)
Lemma altsum2_cancel n : forall T : N -> N -> Qc,
  (forall j k, j <= k -> k < N.of_nat n -> T j k = T (k + 1) j) ->
  altsum (S n) (fun j => altsum n (T j)) = 0%Qc.
Proof.
  induction n as [|n IH]; intros T H.
  - rewrite altsum_S. cbn [altsum]. ring.
  - rewrite altsum_S. cbv beta.
    rewrite (altsum_ext (S n) (fun j => altsum (S n) (T j))
               (fun j => (altsum n (T j) + sgn (N.of_nat n) * T j (N.of_nat n))%Qc))
      by (intros j _; apply altsum_S).
    rewrite altsum_plus, altsum_scale.
    rewrite IH by (intros j k Hjk Hk; apply H; lia).
    rewrite (altsum_ext (S n) (fun j => T j (N.of_nat n)) (T (N.of_nat (S n)))).
    + replace (N.of_nat (S n)) with (N.of_nat n + 1) by lia. rewrite sgn_succ. ring.
    + intros j Hj. replace (N.of_nat (S n)) with (N.of_nat n + 1) by lia. apply H; lia.
Qed.

Lemma det_S m A : det (S m) A = altsum (S m) (fun j => (A 0%N j * det m (minor0 j A))%Qc).
Proof. reflexivity. Qed.

(* only the n x n window matters *)
Theorem det_ext n : forall A B, fm_eq (N.of_nat n) (N.of_nat n) A B -> det n A = det n B.
Proof.
  induction n as [|n IH]; intros A B H; [reflexivity|].
  rewrite !det_S. apply altsum_ext. intros k Hk. rewrite (H 0 k) by lia. f_equal.
  apply IH. intros i j Hi Hj. unfold minor0. apply H; destruct (N.ltb_spec j k); lia.
Qed.

(* removing two columns in either order *)
Lemma minor0_minor0 j k A : j <= k ->
  forall a b, minor0 k (minor0 j A) a b = minor0 j (minor0 (k + 1) A) a b.
Proof.
  intros Hjk a b. unfold minor0. f_equal.
  destruct (N.ltb_spec b k), (N.ltb_spec b j);
    repeat match goal with |- context [?x <? ?y] => destruct (N.ltb_spec x y) end; lia.
Qed.

Theorem det_row_lin n : forall a (al be : Qc) A B C, a < N.of_nat n ->
  (forall j, j < N.of_nat n -> C a j = (al * A a j + be * B a j)%Qc) ->
  (forall i j, i < N.of_nat n -> j < N.of_nat n -> i <> a -> C i j = A i j /\ C i j = B i j) ->
  det n C = (al * det n A + be * det n B)%Qc.
Proof.
  induction n as [|n IH]; intros a al be A B C Ha Hrow Hoth; [lia|].
  rewrite !det_S. rewrite <- !altsum_scale, <- altsum_plus. apply altsum_ext. intros k Hk.
  destruct (N.eq_dec a 0) as [->|Ha0].
  - assert (E1 : det n (minor0 k C) = det n (minor0 k A)).
    { apply det_ext. intros i j Hi Hj. unfold minor0.
      apply Hoth; destruct (N.ltb_spec j k); lia. }
    assert (E2 : det n (minor0 k C) = det n (minor0 k B)).
    { apply det_ext. intros i j Hi Hj. unfold minor0.
      apply Hoth; destruct (N.ltb_spec j k); lia. }
    rewrite <- E1, <- E2. rewrite Hrow by lia. ring.
  - destruct (Hoth 0 k) as [E1 E2]; try lia.
    rewrite (IH (a - 1) al be (minor0 k A) (minor0 k B) (minor0 k C)).
    + rewrite <- E1 at 1. rewrite <- E2. ring.
    + lia.
    + intros j Hj. unfold minor0. replace (a - 1 + 1) with a by lia.
      apply Hrow. destruct (N.ltb_spec j k); lia.
    + intros i j Hi Hj Hia. unfold minor0. apply Hoth; try lia. destruct (N.ltb_spec j k); lia.
Qed.

Theorem det_row_scale n A a c : a < N.of_nat n -> det n (fm_scale a c A) = (c * det n A)%Qc.
Proof.
  intros Ha. rewrite (det_row_lin n a c 0%Qc A A (fm_scale a c A)); [ring | assumption | |].
  - intros j _. unfold fm_scale. rewrite N.eqb_refl. ring.
  - intros i j _ _ Hia. unfold fm_scale. destruct (N.eqb_spec i a); [contradiction|]. split; reflexivity.
Qed.

Theorem det_row_add n A B C a : a < N.of_nat n ->
  (forall j, j < N.of_nat n -> C a j = (A a j + B a j)%Qc) ->
  (forall i j, i < N.of_nat n -> j < N.of_nat n -> i <> a -> C i j = A i j /\ C i j = B i j) ->
  det n C = (det n A + det n B)%Qc.
Proof.
  intros Ha Hrow Hoth. rewrite (det_row_lin n a 1%Qc 1%Qc A B C); [ring | assumption | | assumption].
  intros j Hj. rewrite Hrow by assumption. ring.
Qed.

(* "two equal rows give determinant zero" at order n *)
Definition alt_at (n : nat) : Prop :=
  forall A a b, a < N.of_nat n -> b < N.of_nat n -> a <> b ->
    (forall j, j < N.of_nat n -> A a j = A b j) -> det n A = 0%Qc.

Ltac eqb_cases :=
  repeat match goal with
         | |- context [N.eqb ?x ?y] => destruct (N.eqb_spec x y); subst
         end.

Lemma addrow_of_alt n : alt_at n -> forall A a b c,
  a < N.of_nat n -> b < N.of_nat n -> a <> b -> det n (fm_addrow a b c A) = det n A.
Proof.
  intros Halt A a b c Ha Hb Hab.
  rewrite (det_row_lin n a 1%Qc c A (fun i j => if i =? a then A b j else A i j) (fm_addrow a b c A)).
  - rewrite (Halt (fun i j => if i =? a then A b j else A i j) a b Ha Hb Hab).
    + ring.
    + intros j _. rewrite N.eqb_refl. destruct (N.eqb_spec b a); [congruence | reflexivity].
  - assumption.
  - intros j _. unfold fm_addrow. rewrite N.eqb_refl. ring.
  - intros i j _ _ Hia. unfold fm_addrow. destruct (N.eqb_spec i a); [contradiction|]. split; reflexivity.
Qed.

Lemma swap_as_addrows a b A : a <> b -> forall i j,
  fm_swap a b A i j =
  fm_scale b (- (1))%Qc (fm_addrow a b 1%Qc (fm_addrow b a (- (1))%Qc (fm_addrow a b 1%Qc A))) i j.
Proof.
  intros Hab i j. unfold fm_swap, fm_scale, fm_addrow.
  eqb_cases; try congruence; ring.
Qed.

Lemma swap_of_alt n : alt_at n -> forall A a b,
  a < N.of_nat n -> b < N.of_nat n -> a <> b -> det n (fm_swap a b A) = (- det n A)%Qc.
Proof.
  intros Halt A a b Ha Hb Hab.
  rewrite (det_ext n _ _ (fun i j _ _ => swap_as_addrows a b A Hab i j)).
  rewrite det_row_scale by assumption.
  rewrite !(addrow_of_alt n Halt) by (assumption || congruence).
  ring.
Qed.

(* rows 0 and 1 equal: the double expansion cancels in pairs *)
Lemma det_rows01_equal m A :
  (forall j, j < N.of_nat (S (S m)) -> A 0 j = A 1 j) -> det (S (S m)) A = 0%Qc.
Proof.
  intros H. rewrite det_S.
  pose (T := fun j k : N =>
    (A 0%N j * (A 1%N (if k <? j then k else (k + 1)%N) * det m (minor0 k (minor0 j A))))%Qc).
  rewrite (altsum_ext _ _ (fun j => altsum (S m) (T j))).
  - apply altsum2_cancel. intros j k Hjk Hk. unfold T.
    destruct (N.ltb_spec k j); [lia|]. destruct (N.ltb_spec j (k + 1)); [|lia].
    rewrite (det_ext m _ _ (fun a b _ _ => minor0_minor0 j k A Hjk a b)).
    rewrite <- !H by lia. ring.
  - intros j Hj. rewrite det_S. rewrite <- altsum_scale. apply altsum_ext. intros k Hk.
    unfold T. reflexivity.
Qed.

Theorem det_alt n : alt_at n.
Proof.
  induction n as [|n IH].
  - intros A a b Ha. lia.
  - assert (core : forall A a b, a < b -> b < N.of_nat (S n) ->
              (forall j, j < N.of_nat (S n) -> A a j = A b j) -> det (S n) A = 0%Qc).
    { intros A a b Hab Hb HE. destruct (N.eq_dec a 0) as [->|Ha0].
      - destruct n as [|m]; [lia|].
        destruct (N.eq_dec b 1) as [->|Hb1]; [now apply det_rows01_equal|].
        assert (E : det (S (S m)) (fm_swap 1 b A) = 0%Qc).
        { apply det_rows01_equal. intros j Hj. unfold fm_swap. eqb_cases; try lia. now apply HE. }
        assert (E2 : det (S (S m)) (fm_swap 1 b A) = (- det (S (S m)) A)%Qc).
        { rewrite !det_S. rewrite <- altsum_opp. apply altsum_ext. intros j Hj.
          rewrite (det_ext (S m) (minor0 j (fm_swap 1 b A)) (fm_swap 0 (b - 1) (minor0 j A))).
          - rewrite (swap_of_alt (S m) IH) by lia.
            unfold fm_swap at 1. eqb_cases; try lia. ring.
          - intros i c _ _. unfold minor0, fm_swap.
            replace (b - 1 + 1) with b by lia.
            eqb_cases; try lia; reflexivity. }
        rewrite E2 in E. transitivity (- - det (S (S m)) A)%Qc; [ring|]. rewrite E. ring.
      - rewrite det_S. apply altsum_zero. intros j Hj.
        rewrite (IH (minor0 j A) (a - 1) (b - 1)); [ring | lia | lia | lia |].
        intros c Hc. unfold minor0.
        replace (a - 1 + 1) with a by lia. replace (b - 1 + 1) with b by lia.
        apply HE. destruct (N.ltb_spec c j); lia. }
    intros A a b Ha Hb Hab HE. destruct (N.lt_ge_cases a b) as [Hlt|Hge].
    + apply (core A a b); assumption.
    + apply (core A b a); [lia | assumption |]. intros j Hj. symmetry. now apply HE.
Qed.

Theorem det_two_equal_rows n A a b :
  a < N.of_nat n -> b < N.of_nat n -> a <> b ->
  (forall j, j < N.of_nat n -> A a j = A b j) -> det n A = 0%Qc.
Proof. apply det_alt. Qed.

Theorem det_swap n A a b :
  a < N.of_nat n -> b < N.of_nat n -> a <> b -> det n (fm_swap a b A) = (- det n A)%Qc.
Proof. apply swap_of_alt, det_alt. Qed.

Theorem det_addrow n A a b c :
  a < N.of_nat n -> b < N.of_nat n -> a <> b -> det n (fm_addrow a b c A) = det n A.
Proof. apply addrow_of_alt, det_alt. Qed.

Lemma det_zero_col0 n : forall A, (0 < n)%nat ->
  (forall i, i < N.of_nat n -> A i 0 = 0%Qc) -> det n A = 0%Qc.
Proof.
  induction n as [|n IH]; intros A Hn H; [lia|].
  rewrite det_S. apply altsum_zero. intros j Hj.
  destruct (N.eq_dec j 0) as [->|Hj0].
  - rewrite H by lia. ring.
  - rewrite (IH (minor0 j A)); [ring | lia |].
    intros i Hi. unfold minor0. destruct (N.ltb_spec 0 j); [|lia]. apply H. lia.
Qed.

(* first column zero below the diagonal: expansion has one term *)
Theorem det_first_col m A :
  (forall i, 0 < i -> i < N.of_nat (S m) -> A i 0 = 0%Qc) ->
  det (S m) A = (A 0%N 0%N * det m (minor0 0%N A))%Qc.
Proof.
  intros H. rewrite det_S. rewrite altsum_first; [reflexivity|].
  intros k Hk0 Hk. rewrite (det_zero_col0 m (minor0 k A)); [ring | lia |].
  intros i Hi. unfold minor0. destruct (N.ltb_spec 0 k); [|lia]. apply H; lia.
Qed.

(* product of the first n diagonal entries, folded from the left as the code does *)
Fixpoint diag_prod (n : nat) (A : fm) : Qc :=
  match n with
  | O => 1%Qc
  | S k => (diag_prod k A * A (N.of_nat k) (N.of_nat k))%Qc
  end.

Lemma diag_prod_ext n : forall A B,
  (forall i, i < N.of_nat n -> A i i = B i i) -> diag_prod n A = diag_prod n B.
Proof.
  induction n as [|n IH]; intros A B H; [reflexivity|]. cbn [diag_prod].
  rewrite (IH A B) by (intros i Hi; apply H; lia). rewrite H by lia. reflexivity.
Qed.

Lemma diag_prod_shift m A : diag_prod (S m) A = (A 0%N 0%N * diag_prod m (minor0 0%N A))%Qc.
Proof.
  induction m as [|m IH].
  - cbn [diag_prod N.of_nat]. ring.
  - change (diag_prod (S (S m)) A) with (diag_prod (S m) A * A (N.of_nat (S m)) (N.of_nat (S m)))%Qc.
    rewrite IH. cbn [diag_prod]. unfold minor0 at 3.
    destruct (N.ltb_spec (N.of_nat m) 0); [lia|].
    replace (N.of_nat (S m)) with (N.of_nat m + 1) by lia. ring.
Qed.

(* zero above the diagonal *)
Theorem det_lower_tri n : forall L, lower_tri (N.of_nat n) L -> det n L = diag_prod n L.
Proof.
  induction n as [|n IH]; intros L HL; [reflexivity|].
  rewrite det_S, diag_prod_shift. rewrite altsum_first.
  - rewrite IH; [reflexivity|]. intros i j Hi Hj Hij. unfold minor0.
    destruct (N.ltb_spec j 0); [lia|]. apply HL; lia.
  - intros k Hk0 Hk. rewrite (HL 0 k) by lia. ring.
Qed.

(* zero below the diagonal *)
Theorem det_upper_tri n : forall U, upper_tri (N.of_nat n) U -> det n U = diag_prod n U.
Proof.
  induction n as [|n IH]; intros U HU; [reflexivity|].
  rewrite det_first_col by (intros i Hi0 Hi; apply HU; lia).
  rewrite diag_prod_shift. rewrite IH; [reflexivity|].
  intros i j Hi Hj. unfold minor0. destruct (N.ltb_spec j 0); [lia|]. apply HU; lia.
Qed.

Fixpoint qpow (c : Qc) (n : nat) : Qc :=
  match n with
  | O => 1%Qc
  | S k => (c * qpow c k)%Qc
  end.

Lemma qpow_mul a b n : qpow (a * b)%Qc n = (qpow a n * qpow b n)%Qc.
Proof. induction n as [|n IH]; cbn [qpow]; [ring|]. rewrite IH. ring. Qed.

Lemma qpow_nonzero c n : c <> 0%Qc -> qpow c n <> 0%Qc.
Proof.
  intros Hc. induction n as [|n IH]; cbn [qpow].
  - exact Q_apart_0_1.
  - intros H. apply Qcmult_integral in H. destruct H; contradiction.
Qed.

Theorem det_scale_all n c : forall A,
  det n (fun i j => (c * A i j)%Qc) = (qpow c n * det n A)%Qc.
Proof.
  induction n as [|n IH]; intros A.
  - cbn [det qpow]. ring.
  - rewrite !det_S. cbn [qpow]. rewrite <- altsum_scale. apply altsum_ext. intros k Hk.
    rewrite (det_ext n (minor0 k (fun i j => (c * A i j)%Qc)) (fun i j => (c * minor0 k A i j)%Qc))
      by (intros i j _ _; reflexivity).
    rewrite IH. ring.
Qed.

(* every row i >= 1 gets  row i + c i * row 0 *)
Definition fm_elim0 (c : N -> Qc) (T : fm) : fm :=
  fun i j => if i =? 0 then T 0%N j else (T i j + c i * T 0%N j)%Qc.

Theorem det_elim0 n c T : det n (fm_elim0 c T) = det n T.
Proof.
  destruct n as [|n]; [reflexivity|].
  assert (G : forall t, (t <= n)%nat ->
            det (S n) (fun i j => if (0 <? i) && (i <=? N.of_nat t)
                                  then (T i j + c i * T 0%N j)%Qc else T i j) = det (S n) T).
  { induction t as [|t IH]; intros Ht.
    - apply det_ext. intros i j _ _. cbv beta.
      destruct (N.ltb_spec 0 i), (N.leb_spec i (N.of_nat 0)); cbn [andb]; try lia; reflexivity.
    - rewrite <- IH by lia.
      rewrite <- (det_addrow (S n)
                    (fun i j => if (0 <? i) && (i <=? N.of_nat t)
                                then (T i j + c i * T 0%N j)%Qc else T i j)
                    (N.of_nat (S t)) 0 (c (N.of_nat (S t)))) by lia.
      apply det_ext. intros i j _ _. unfold fm_addrow.
      destruct (N.eqb_spec i (N.of_nat (S t))) as [->|ne].
      + destruct (N.ltb_spec 0 (N.of_nat (S t))), (N.leb_spec (N.of_nat (S t)) (N.of_nat (S t))),
          (N.leb_spec (N.of_nat (S t)) (N.of_nat t)), (N.ltb_spec 0 0); cbn [andb]; try lia; reflexivity.
      + destruct (N.ltb_spec 0 i), (N.leb_spec i (N.of_nat (S t))), (N.leb_spec i (N.of_nat t));
          cbn [andb]; try lia; reflexivity. }
  rewrite <- (G n) by lia. apply det_ext. intros i j Hi Hj. unfold fm_elim0.
  destruct (N.eqb_spec i 0), (N.ltb_spec 0 i), (N.leb_spec i (N.of_nat n)); cbn [andb]; subst; try lia; reflexivity.
Qed.

(* pivot T 0 0 <> 0: the determinant is the pivot times the determinant of the Schur
   complement *)
Theorem det_schur r T :
  T 0 0 <> 0%Qc ->
  det (S r) T =
  (T 0%N 0%N * det r (fun i j => T (i + 1)%N (j + 1)%N - T (i + 1)%N 0%N * T 0%N (j + 1)%N / T 0%N 0%N))%Qc.
Proof.
  intros Hp. set (c := fun i : N => (- T i 0%N / T 0%N 0%N)%Qc).
  rewrite <- (det_elim0 (S r) c T). rewrite det_first_col.
  - f_equal. apply det_ext. intros i j Hi Hj. unfold minor0, fm_elim0, c.
    destruct (N.ltb_spec j 0); [lia|]. destruct (N.eqb_spec (i + 1) 0); [lia|]. field. assumption.
  - intros i Hi0 Hi. unfold fm_elim0, c. destruct (N.eqb_spec i 0); [lia|]. field. assumption.
Qed.

(* one step of the fraction-free (Bareiss) elimination on the trailing block: p the pivot,
   q the previous pivot (1 at the start) *)
Theorem bareiss_step r (T T' : fm) (p q : Qc) :
  p = T 0 0 -> p <> 0%Qc -> q <> 0%Qc ->
  (forall i j, i < N.of_nat r -> j < N.of_nat r ->
     T' i j = ((p * T (i + 1)%N (j + 1)%N - T (i + 1)%N 0%N * T 0%N (j + 1)%N) / q)%Qc) ->
  (qpow p r * det (S r) T = p * qpow q r * det r T')%Qc.
Proof.
  intros Ep Hp Hq HT'. subst p. rewrite (det_schur r T Hp).
  set (Sc := fun i j : N => (T (i + 1)%N (j + 1)%N - T (i + 1)%N 0%N * T 0%N (j + 1)%N / T 0%N 0%N)%Qc).
  rewrite (det_ext r T' (fun i j => ((T 0%N 0%N / q) * Sc i j)%Qc)).
  - rewrite det_scale_all.
    assert (E : (qpow (T 0%N 0%N / q) r * qpow q r = qpow (T 0%N 0%N) r)%Qc).
    { rewrite <- qpow_mul. f_equal. field. assumption. }
    rewrite <- E. ring.
  - intros i j Hi Hj. rewrite HT' by assumption. unfold Sc. field. split; assumption.
Qed.
