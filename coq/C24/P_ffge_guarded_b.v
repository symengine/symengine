(* C24 obligation: fraction_free_gaussian_elimination under guard_ffge: row equivalent + staircase *)
From SE Require Import C24.DenseModel C24.DenseSpec C24.DenseFF5.
Local Open Scope N_scope.
Local Open Scope res_scope.
Theorem C24_ffge_guarded_b :
  forall A B r c,
  good A r c -> 0 < c -> drow B = r -> dcol B = c ->
  guard_ffge A = true ->
  exists B', fraction_free_gaussian_elimination A B = Ok B' /\ good B' r c /\
    row_equiv r c (fm_of A) (fm_of B') /\
    (forall j k, k < j -> k < c - 1 -> j < r -> fm_of B' j k = 0%Qc).
Proof. exact ffge_guarded_b. Qed.
Print Assumptions C24_ffge_guarded_b.
