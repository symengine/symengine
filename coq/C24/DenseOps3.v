(* C24 -- specifications of the structural operations of the model: joins (row_insert,
   col_insert, row_join, col_join), deletions (row_del, col_del), the symmetry test and the
   trace.  All sizes, total correctness, against the functional view [entry M i j]. *)
From SE Require Import C24.DenseModel C24.DenseBase C24.DenseSpec C24.DenseOps C24.DenseOps2.
From Coq Require Import Lia ZifyBool ZifyNat ZifyN.
Local Open Scope N_scope.
Local Open Scope res_scope.

Lemma lenN_resizeL l n : lenN (resizeL l n) = n.
Proof. unfold lenN, resizeL. rewrite app_length, firstn_length, repeat_length. lia. Qed.

Lemma nth_firstn_lt {A} (l : list A) n i d : (i < n)%nat -> nth i (firstn n l) d = nth i l d.
Proof.
  revert n i. induction l as [|x r IH]; intros [|n] [|i] H; cbn; try lia; try reflexivity.
  apply IH. lia.
Qed.

Lemma nthx_resizeL l n k :
  k < n -> nthx (resizeL l n) k = if k <? lenN l then nthx l k else x0.
Proof.
  intros Hk. unfold nthx, resizeL, lenN.
  destruct (N.ltb_spec k (N.of_nat (length l))) as [H|H].
  - rewrite app_nth1 by (rewrite firstn_length; lia). apply nth_firstn_lt. lia.
  - rewrite app_nth2 by (rewrite firstn_length; lia). apply nth_repeat.
Qed.

Lemma nthx_resizeL_lt l n k : k < n -> k < lenN l -> nthx (resizeL l n) k = nthx l k.
Proof.
  intros H1 H2. rewrite nthx_resizeL by assumption.
  destruct (N.ltb_spec k (lenN l)); [reflexivity | lia].
Qed.

Theorem row_del_one A k : drow A = 1 -> row_del A k = Ok (mkmat 0 0 []).
Proof.
  intros H. unfold row_del. rewrite H. cbn [N.eqb Pos.eqb]. unfold mresize, resizeL.
  reflexivity.
Qed.

Theorem row_del_spec A k :
  wf A -> k < drow A -> 2 <= drow A ->
  exists A', row_del A k = Ok A' /\ wf A' /\ drow A' = drow A - 1 /\ dcol A' = dcol A /\
    forall i j, i < drow A - 1 -> j < dcol A ->
      entry A' i j = if i <? k then entry A i j else entry A (i + 1) j.
Proof.
  intros W Hk H2. unfold row_del.
  destruct (N.eqb_spec (drow A) 1) as [e|_]; [lia|].
  destruct (N.eqb_spec (drow A) 0) as [e|_]; [lia|].
  (* row k travels down by exchanges with its lower neighbour *)
  pose (F := fun (t r c : N) =>
    if r <? k then entry A r c else if r <? t then entry A (r + 1) c
    else if r =? t then entry A k c else entry A r c).
  apply (bind_ex _ _ (fun m' => holds m' (drow A) (dcol A) (F (drow A - 1)))).
  - apply (holds_loop (drow A) (dcol A) F (entry A)); [lia | now split | | |].
    + intros r c _ _. unfold F. clear. ffj_cases; reflexivity.
    + intros t s Ht [G Hs].
      destruct (row_exchange_spec s (drow A) (dcol A) t (t + 1) G) as (s' & Es & G' & Hv); try lia.
      exists s'. split; [exact Es|]. split; [exact G'|].
      intros r c Hr Hc. rewrite (Hv r c Hr Hc), !Hs by lia. unfold F. clear - Ht Hk.
      ffj_cases; reflexivity.
    + reflexivity.
  - intros m' [G Hv]. unfold good_vec in G. eexists; split; [reflexivity|].
    unfold wf, mresize, setm, entry. cbn [dm drow dcol].
    split; [apply lenN_resizeL | split; [reflexivity | split; [reflexivity|]]].
    intros i j Hi Hj. unfold ent at 1.
    rewrite nthx_resizeL_lt by (try (apply idx_lt; assumption); rewrite G; apply idx_lt; lia).
    fold (ent m' (dcol A) i j). rewrite (Hv i j) by lia. unfold F, entry. clear - Hi Hk.
    ffj_cases; reflexivity.
Qed.

Theorem col_del_one A k : dcol A = 1 -> col_del A k = Ok (mkmat 0 0 []).
Proof.
  intros H. unfold col_del. rewrite H. cbn [N.eqb Pos.eqb]. unfold mresize, resizeL.
  reflexivity.
Qed.

Theorem col_del_spec A k :
  wf A -> k < dcol A -> 2 <= dcol A ->
  exists A', col_del A k = Ok A' /\ wf A' /\ drow A' = drow A /\ dcol A' = dcol A - 1 /\
    forall i j, i < drow A -> j < dcol A - 1 ->
      entry A' i j = if j <? k then entry A i j else entry A i (j + 1).
Proof.
  intros W Hk H2. unfold col_del. unfold wf in W.
  destruct (N.eqb_spec (dcol A) 1) as [e|_]; [lia|].
  destruct (N.eqb_spec (dcol A) 0) as [e|_]; [lia|].
  set (row := drow A) in *. set (col := dcol A) in *. set (m := dm A) in *.
  set (c1 := col - 1).
  assert (Hcol : col = c1 + 1) by lia.
  pose (sh := fun b : N => if b <? k then b else b + 1).
  (* compaction in place, front to back: after i rows the prefix, read with stride col - 1,
     holds rows < i without column k, and every cell from i * col on is still that of A.
     The write cursor never passes the read position (Hole below), so no cell is
     overwritten before it has been read. *)
  pose (P := fun (i : N) (st : list qx * N) =>
    lenN (fst st) = row * col /\ snd st = i * c1 /\
    (forall a b, a < i -> b < c1 -> nthx (fst st) (a * c1 + b) = ent m col a (sh b)) /\
    (forall p, i * col <= p -> nthx (fst st) p = nthx m p)).
  destruct (for_range_inv P 0 row
    (fun i st => for_range 0 col (fun j (st : list qx * N) =>
                 let (m, out) := st in
                 if j =? k then Ok st
                 else do a <- rd m (i * col + j);
                      do m <- wr m out a;
                      Ok (m, out + 1)) st) (m, 0)) as (st' & E & HP).
  - lia.
  - unfold P; cbn [fst snd]. split; [exact W | split; [lia | split; [intros; lia | reflexivity]]].
  - intros i st [_ Hi] (HL & Hout & Hpre & Hun).
    assert (Hic : i * col = i * c1 + i) by (rewrite Hcol; lia).
    pose (Q := fun (j : N) (st : list qx * N) =>
      lenN (fst st) = row * col /\ snd st = i * c1 + (if j <=? k then j else j - 1) /\
      (forall a b, b < c1 -> (a < i \/ (a = i /\ sh b < j)) ->
         nthx (fst st) (a * c1 + b) = ent m col a (sh b)) /\
      (forall p, i * col + j <= p -> nthx (fst st) p = nthx m p)).
    destruct (for_range_inv Q 0 col
      (fun j (st : list qx * N) =>
                 let (m, out) := st in
                 if j =? k then Ok st
                 else do a <- rd m (i * col + j);
                      do m <- wr m out a;
                      Ok (m, out + 1)) st) as (st2 & E2 & HQ).
    + lia.
    + split; [exact HL | split; [|split]].
      * rewrite Hout. destruct (N.leb_spec 0 k); lia.
      * intros a b Hb [Ha|[_ Hs]]; [now apply Hpre | lia].
      * intros p Hp. apply Hun. lia.
    + intros j [mm out] [_ Hj] (HLt & Ho & Hp & Hu). cbn [fst snd] in *.
      destruct (N.eqb_spec j k) as [e|ne].
      * subst j. eexists; split; [reflexivity|]. unfold Q; cbn [fst snd].
        split; [exact HLt | split; [|split]].
        -- rewrite Ho. destruct (N.leb_spec k k), (N.leb_spec (k + 1) k); lia.
        -- intros a b Hb Hab. apply Hp; [assumption|].
           destruct Hab as [Ha|[Ha Hs]]; [now left | right; split; [assumption|]].
           unfold sh in *. destruct (N.ltb_spec b k); lia.
        -- intros p Hpp. apply Hu. lia.
      * set (bo := if j <? k then j else j - 1).
        assert (Hbo : bo < c1) by (unfold bo; destruct (N.ltb_spec j k); lia).
        assert (Ho' : out = i * c1 + bo).
        { rewrite Ho. unfold bo. destruct (N.leb_spec j k), (N.ltb_spec j k); lia. }
        assert (Hshbo : sh bo = j) by (unfold sh, bo; destruct (N.ltb_spec j k); [destruct (N.ltb_spec j k) | destruct (N.ltb_spec (j - 1) k)]; lia).
        assert (Hrd : i * col + j < row * col) by (apply idx_lt; assumption).
        rewrite rd_ok by (rewrite HLt; exact Hrd). cbn [bind].
        assert (Hole : out <= i * col + j) by (rewrite Ho', Hic; unfold bo; destruct (N.ltb_spec j k); lia).
        rewrite wr_ok by (rewrite HLt; lia). cbn [bind].
        eexists; split; [reflexivity|]. unfold Q; cbn [fst snd].
        split; [now rewrite lenN_upd | split; [|split]].
        -- rewrite Ho. destruct (N.leb_spec j k), (N.leb_spec (j + 1) k); lia.
        -- intros a b Hb Hab. rewrite nthx_upd by (rewrite HLt; lia).
           rewrite Ho'. destruct (N.eqb_spec (a * c1 + b) (i * c1 + bo)) as [e|ne'].
           ++ apply idx_inj in e; [|assumption|assumption]. destruct e; subst a b.
              rewrite Hshbo. rewrite (Hu (i * col + j)) by lia. reflexivity.
           ++ apply Hp; [assumption|].
              destruct Hab as [Ha|[Ha Hs]]; [now left | right; split; [assumption|]].
              subst a. assert (b <> bo) by congruence.
              unfold sh, bo in *. destruct (N.ltb_spec b k), (N.ltb_spec j k); lia.
        -- intros p Hpp. rewrite nthx_upd_other by lia. apply Hu. lia.
    + exists st2. split; [exact E2|]. destruct HQ as (Q1 & Q2 & Q3 & Q4).
      split; [exact Q1 | split; [|split]].
      * rewrite Q2. destruct (N.leb_spec col k); lia.
      * intros a b Ha Hb. apply Q3; [assumption|].
        destruct (N.eq_dec a i); [right; split; [assumption|] | left; lia].
        unfold sh. destruct (N.ltb_spec b k); lia.
      * intros p Hp. apply Q4. lia.
  - rewrite E. cbn [bind]. eexists; split; [reflexivity|].
    destruct HP as (P1 & P2 & P3 & _).
    unfold wf, mresize, setm, entry. cbn [dm drow dcol]. fold c1.
    split; [apply lenN_resizeL | split; [reflexivity | split; [reflexivity|]]].
    intros i j Hi Hj. unfold ent at 1.
    assert (i * c1 + j < row * c1) by (apply idx_lt; assumption).
    rewrite nthx_resizeL_lt by (try assumption; rewrite P1; nia).
    rewrite (P3 i j Hi Hj). unfold sh. destruct (j <? k); reflexivity.
Qed.

Theorem row_insert_spec A B pos :
  wf A -> wf B -> dcol B = dcol A -> pos <= drow A ->
  exists A', row_insert A B pos = Ok A' /\ wf A' /\
    drow A' = drow A + drow B /\ dcol A' = dcol A /\
    forall i j, i < drow A + drow B -> j < dcol A ->
      entry A' i j = if i <? pos then entry A i j
                     else if i <? pos + drow B then entry B (i - pos) j
                     else entry A (i - drow B) j.
Proof.
  intros WA WB HcB Hpos. unfold row_insert. unfold wf in WA, WB.
  set (row := drow A) in *. set (col := dcol A) in *. set (rB := drow B) in *.
  set (R := row + rB).
  (* the resized vector: A on top, zeros below *)
  pose (E0 := fun r c : N => if r <? row then entry A r c else x0).
  assert (H0 : holds (resizeL (dm A) (R * col)) R col E0).
  { split; [apply lenN_resizeL|]. intros r c Hr Hc. unfold ent, E0.
    rewrite nthx_resizeL by (apply idx_lt; assumption). rewrite WA.
    destruct (N.ltb_spec r row), (N.ltb_spec (r * col + c) (row * col));
      try reflexivity; exfalso; nia. }
  assert (HB : holds (dm B) rB col (entry B)).
  { rewrite HcB in WB. split; [exact WB|]. intros r c _ _. unfold entry. now rewrite HcB. }
  (* before the iteration for row t - 1: the rows >= t (and >= pos) have moved down by rB *)
  pose (F := fun (t r c : N) =>
    if (pos + rB <=? r) && (t + rB <=? r) then entry A (r - rB) c else E0 r c).
  match goal with |- context [for_down ?nn ?bb ?ss] =>
    destruct (for_down_inv (fun t s => holds s R col (F t)) nn bb ss) as (m1 & E1 & H1) end.
  - rewrite N2Nat.id. apply (holds_ext _ _ _ _ _ H0).
    intros r c Hr _. unfold F, R in *. clear - Hr Hpos. ffj_cases; reflexivity.
  - rewrite N2Nat.id. intros t s Ht Hs. cbv beta.
    destruct (N.ltb_spec t pos) as [Htp|Htp].
    + exists s. split; [reflexivity|]. apply (holds_ext _ _ _ _ _ Hs).
      intros r c _ _. unfold F. ffj_cases; reflexivity.
    + pose (G := fun (u r c : N) =>
        if (r =? t + rB) && (u <=? c) then E0 t c else F (t + 1) r c).
      match goal with |- context [for_down ?nn ?bb ?ss] =>
        destruct (for_down_inv (fun u s => holds s R col (G u)) nn bb ss) as (s1 & Es1 & Hs1) end.
      * rewrite N2Nat.id. apply (holds_ext _ _ _ _ _ Hs).
        intros r c _ Hc. unfold G. clear - Hc. ffj_cases; reflexivity.
      * rewrite N2Nat.id. intros u v Hu Hv. cbv beta.
        rewrite (holds_rd v R col _ Hv) by (unfold R; lia). cbn [bind].
        apply (holds_wr v R col (G (u + 1))); [assumption | unfold R; lia | assumption |].
        intros a b _ _. unfold G, F. clear - Htp. ffj_cases; reflexivity.
      * exists s1. split; [exact Es1|]. apply (holds_ext _ _ _ _ _ Hs1).
        intros r c _ _. unfold G, F. clear - Ht Htp. ffj_cases; try reflexivity.
        rewrite N.add_sub. unfold E0. destruct (N.ltb_spec t row); [reflexivity | lia].
  - rewrite E1. cbn [bind].
    (* then the rows of B are written into the gap *)
    pose (H := fun (i r c : N) =>
      if (pos <=? r) && (r <? i + pos) then entry B (r - pos) c else F 0 r c).
    apply (bind_ex _ _ (fun m' => holds m' R col (H rB))).
    + apply (holds_loop R col H (F 0)); [lia | exact H1 | | |].
      * intros r c _ _. unfold H. ffj_cases; reflexivity.
      * intros i s [_ Hi] Hs.
        pose (K := fun (j r c : N) =>
          if (r =? i + pos) && (c <? j) then entry B i c else H i r c).
        apply (holds_loop R col K (H i)); [lia | exact Hs | | |].
        -- intros r c _ _. unfold K. clear. ffj_cases; reflexivity.
        -- intros j u [_ Hj] Hu.
           rewrite (holds_rd (dm B) rB col _ HB) by assumption. cbn [bind]. apply (holds_wr u R col (K j)); [assumption | unfold R; lia | assumption |].
           intros a b _ _. unfold K. clear. ffj_cases; reflexivity.
        -- intros r c _ Hc. unfold K, H. clear - Hc Hi. ffj_cases; rewrite ?N.add_sub; reflexivity.
      * reflexivity.
    + intros m' [HL Hm]. eexists; split; [reflexivity|].
      unfold wf, entry. cbn [dm drow dcol]. fold rB. rewrite HcB. fold col.
      split; [exact HL | split; [reflexivity | split; [reflexivity|]]].
      intros i j Hi Hj. rewrite (Hm i j Hi Hj). unfold H, F, E0, entry. rewrite HcB. fold col.
      clear - Hi Hpos. ffj_cases; reflexivity.
Qed.

Theorem col_insert_spec A B pos :
  wf A -> wf B -> drow B = drow A -> pos <= dcol A ->
  exists A', col_insert A B pos = Ok A' /\ wf A' /\
    drow A' = drow A /\ dcol A' = dcol A + dcol B /\
    forall i j, i < drow A -> j < dcol A + dcol B ->
      entry A' i j = if j <? pos then entry A i j
                     else if j <? pos + dcol B then entry B i (j - pos)
                     else entry A i (j - dcol B).
Proof.
  intros WA WB HrB Hpos. unfold col_insert. unfold wf in WA, WB.
  set (row := drow A) in *. set (col := dcol A) in *. set (cB := dcol B) in *.
  set (nc := col + cB). set (mA := dm A) in *. set (L := row * nc).
  set (m0 := resizeL mA L).
  assert (HL0 : lenN m0 = L) by apply lenN_resizeL.
  assert (HLc : row * col <= L) by (unfold L, nc; nia).
  assert (Hm0 : forall p, p < row * col -> nthx m0 p = nthx mA p).
  { intros p Hp. unfold m0. apply nthx_resizeL_lt; [lia | now rewrite WA]. }
  pose (np := fun c : N => if pos <=? c then c + cB else c).
  assert (Hnp : forall c, c < col -> np c < nc).
  { intros c Hc. unfold np, nc. destruct (N.leb_spec pos c); lia. }
  assert (Hnpi : forall c c', np c = np c' -> c = c').
  { intros c c'. unfold np. destruct (N.leb_spec pos c), (N.leb_spec pos c'); lia. }
  (* expansion in place, back to front (rows and columns run downwards): rows >= t already
     sit at their new positions (stride nc, column c at np c), and every cell below t * col
     is still that of A.  An entry only moves to a position that is not below its own
     (Hin, Hnpj below), so
     the cells still to be read are never overwritten. *)
  pose (P := fun (t : N) (m' : list qx) =>
    lenN m' = L /\
    (forall r c, r < row -> c < col -> t <= r -> nthx m' (r * nc + np c) = ent mA col r c) /\
    (forall p, p < t * col -> nthx m' p = nthx mA p)).
  match goal with |- context [for_down ?n ?b ?s] =>
    destruct (for_down_inv P n b s) as (m1 & E1 & HP1) end.
  - rewrite N2Nat.id. split; [exact HL0 | split].
    + intros; lia.
    + exact Hm0.
  - rewrite N2Nat.id. intros i s Hi (HLs & Hmv & Hun). cbv beta.
    pose (Q := fun (j : N) (m' : list qx) =>
      lenN m' = L /\
      (forall r c, r < row -> c < col -> (i + 1 <= r \/ (r = i /\ j <= c)) ->
         nthx m' (r * nc + np c) = ent mA col r c) /\
      (forall p, p < i * col + j -> nthx m' p = nthx mA p)).
    match goal with |- context [for_down ?n ?b ?s] =>
      destruct (for_down_inv Q n b s) as (s1 & Es1 & HQ1) end.
    + rewrite N2Nat.id. split; [exact HLs | split].
      * intros r c Hr Hc [H1|[H1 H2]]; [now apply Hmv | lia].
      * intros p Hp. apply Hun. lia.
    + rewrite N2Nat.id. intros j u Hj (HLu & Umv & Uun). cbv beta.
      assert (Hrd : i * col + j < row * col) by (apply idx_lt; assumption).
      rewrite rd_ok by (rewrite HLu; lia). cbn [bind].
      rewrite (Uun (i * col + j)) by lia.
      assert (Hw : i * nc + np j < L) by (unfold L; apply idx_lt; auto).
      assert (Hin : i * col <= i * nc) by (unfold nc; nia).
      assert (Hnpj : j <= np j) by (unfold np; destruct (N.leb_spec pos j); lia).
      assert (Ebody : (if pos <=? j then wr u (i * nc + j + cB) (nthx mA (i * col + j))
                       else wr u (i * nc + j) (nthx mA (i * col + j)))
                      = wr u (i * nc + np j) (nthx mA (i * col + j))).
      { unfold np. destruct (N.leb_spec pos j); [|reflexivity]. f_equal. lia. }
      rewrite Ebody. rewrite wr_ok by (rewrite HLu; exact Hw).
      eexists; split; [reflexivity|].
      split; [now rewrite lenN_upd | split].
      * intros r c Hr Hc Hrc. rewrite nthx_upd by (rewrite HLu; exact Hw).
        destruct (N.eqb_spec (r * nc + np c) (i * nc + np j)) as [e|ne].
        -- apply idx_inj in e; auto. destruct e as [e1 e2]. apply Hnpi in e2. subst. reflexivity.
        -- apply Umv; try assumption.
           destruct Hrc as [H1|[H1 H2]]; [now left | right; split; [assumption|]].
           subst r. assert (c <> j) by (intros ->; congruence). lia.
      * intros p Hp. rewrite nthx_upd_other by lia. apply Uun. lia.
    + exists s1. split; [exact Es1|]. destruct HQ1 as (Q1 & Q2 & Q3).
      split; [exact Q1 | split].
      * intros r c Hr Hc Hrt. apply Q2; try assumption. lia.
      * intros p Hp. apply Q3. lia.
  - rewrite E1. cbn [bind]. destruct HP1 as (HL1 & Hmv & _).
    destruct (fill2 row cB
                (fun i j m => do b <- rd (dm B) (i * cB + j); wr m (i * nc + j + pos) b)
                (fun i j => i * nc + j + pos)
                (fun i j => ent (dm B) cB i j) L m1)
      as (m2 & E2 & HL2 & Hv2 & Hu2).
    + exact HL1.
    + intros i j c Hi Hj _.
      rewrite rd_ok by (rewrite WB, HrB; now apply idx_lt). reflexivity.
    + intros i j Hi Hj. assert (i * nc + (j + pos) < row * nc) by (apply idx_lt; unfold nc; lia).
      unfold L. lia.
    + intros i j i' j' Hi Hj Hi' Hj' Eq.
      assert (Eq' : i * nc + (j + pos) = i' * nc + (j' + pos)) by lia.
      apply idx_inj in Eq'; unfold nc; lia.
    + rewrite E2. cbn [bind]. eexists; split; [reflexivity|].
      unfold wf, entry. cbn [dm drow dcol]. fold cB. fold nc. fold col. fold mA.
      split; [exact HL2 | split; [reflexivity | split; [reflexivity|]]].
      intros i j Hi Hj.
      destruct (N.ltb_spec j pos) as [H1|H1]; [|destruct (N.ltb_spec j (pos + cB)) as [H2|H2]].
      * unfold ent at 1. rewrite Hu2.
        -- specialize (Hmv i j Hi ltac:(lia) ltac:(lia)). unfold np in Hmv.
           destruct (N.leb_spec pos j); [lia | exact Hmv].
        -- intros a b Ha Hb Eq.
           assert (Eq' : a * nc + (b + pos) = i * nc + j) by lia.
           apply idx_inj in Eq'; unfold nc; lia.
      * unfold ent at 1. replace (i * nc + j) with (i * nc + (j - pos) + pos) by lia.
        apply Hv2; [assumption | lia].
      * unfold ent at 1. rewrite Hu2.
        -- specialize (Hmv i (j - cB) Hi ltac:(unfold nc in Hj; lia) ltac:(lia)). unfold np in Hmv.
           destruct (N.leb_spec pos (j - cB)); [|lia].
           replace (j - cB + cB) with j in Hmv by lia. exact Hmv.
        -- intros a b Ha Hb Eq.
           assert (Eq' : a * nc + (b + pos) = i * nc + j) by lia.
           apply idx_inj in Eq'; unfold nc; lia.
Qed.

Corollary row_join_spec A B :
  wf A -> wf B -> drow B = drow A ->
  exists A', row_join A B = Ok A' /\ wf A' /\
    drow A' = drow A /\ dcol A' = dcol A + dcol B /\
    forall i j, i < drow A -> j < dcol A + dcol B ->
      entry A' i j = if j <? dcol A then entry A i j else entry B i (j - dcol A).
Proof.
  intros WA WB Hr. unfold row_join.
  destruct (col_insert_spec A B (dcol A) WA WB Hr (N.le_refl _)) as (A' & E & W' & Hr' & Hc' & Hv).
  exists A'. split; [exact E | split; [exact W' | split; [exact Hr' | split; [exact Hc'|]]]].
  intros i j Hi Hj. rewrite (Hv i j Hi Hj).
  destruct (N.ltb_spec j (dcol A)), (N.ltb_spec j (dcol A + dcol B)); try lia; reflexivity.
Qed.

Corollary col_join_spec A B :
  wf A -> wf B -> dcol B = dcol A ->
  exists A', col_join A B = Ok A' /\ wf A' /\
    drow A' = drow A + drow B /\ dcol A' = dcol A /\
    forall i j, i < drow A + drow B -> j < dcol A ->
      entry A' i j = if i <? drow A then entry A i j else entry B (i - drow A) j.
Proof.
  intros WA WB Hc. unfold col_join.
  destruct (row_insert_spec A B (drow A) WA WB Hc (N.le_refl _)) as (A' & E & W' & Hr' & Hc' & Hv).
  exists A'. split; [exact E | split; [exact W' | split; [exact Hr' | split; [exact Hc'|]]]].
  intros i j Hi Hj. rewrite (Hv i j Hi Hj).
  destruct (N.ltb_spec i (drow A)), (N.ltb_spec i (drow A + drow B)); try lia; reflexivity.
Qed.

Theorem is_symmetric_dense_spec A :
  wf A ->
  exists b, is_symmetric_dense A = Ok b /\
    (b = true <-> dcol A = drow A /\
       forall i j, i < drow A -> j < drow A -> i < j ->
         x_eqb (entry A j i) (entry A i j) = true).
Proof.
  intros W. unfold is_symmetric_dense. unfold wf in W.
  destruct (N.eqb_spec (dcol A) (drow A)) as [e|ne]; cbn [negb].
  2:{ exists false. split; [reflexivity|]. split; [discriminate | intros [H _]; contradiction]. }
  rewrite <- e in *. set (n := dcol A) in *.
  pose (eqc := fun a b : N => x_eqb (entry A b a) (entry A a b) = true).
  pose (P := fun (i : N) (sym : bool) =>
    sym = true <-> forall a b, a < i -> b < n -> a < b -> eqc a b).
  match goal with |- context [for_range ?a ?b ?body ?s] =>
    destruct (for_range_inv P a b body s) as (r & E & HP) end.
  - lia.
  - split; [intros; lia | reflexivity].
  - intros i sym [_ Hi] HS. cbv beta.
    pose (Q := fun (j : N) (st : bool * bool) =>
      (snd st = true -> fst st = false) /\
      (fst st = true <-> sym = true /\ forall b, i < b -> b < j -> eqc i b)).
    match goal with |- context [for_range ?a ?b ?body ?s] =>
      destruct (for_range_inv Q a b body s) as (st & E2 & HQ) end.
    + lia.
    + unfold Q; cbn [fst snd]. split; [discriminate|].
      split; [intros ->; split; [reflexivity | intros; lia] | intros [H _]; exact H].
    + intros j [s stop] [Hj1 Hj2] (Q1 & Q2). cbn [fst snd] in *.
      destruct stop.
      * eexists; split; [reflexivity|]. unfold Q; cbn [fst snd]. split; [exact Q1|].
        assert (s = false) by auto. subst s. split; [discriminate|].
        intros [H1 H2]. apply Q2. split; [exact H1|]. intros b Hb1 Hb2. apply H2; lia.
      * rewrite rd_ok by (rewrite W; apply idx_lt; lia). cbn [bind].
        rewrite rd_ok by (rewrite W; apply idx_lt; lia). cbn [bind].
        change (nthx (dm A) (j * n + i)) with (entry A j i).
        change (nthx (dm A) (i * n + j)) with (entry A i j).
        destruct (x_eqb (entry A j i) (entry A i j)) eqn:Ex.
        -- eexists; split; [reflexivity|]. unfold Q; cbn [fst snd]. split; [discriminate|].
           rewrite Q2. split; intros [H1 H2]; (split; [exact H1|]); intros b Hb1 Hb2.
           ++ destruct (N.eq_dec b j); [subst; exact Ex | apply H2; lia].
           ++ apply H2; lia.
        -- eexists; split; [reflexivity|]. unfold Q; cbn [fst snd]. split; [reflexivity|].
           split; [discriminate|]. intros [_ H2].
           specialize (H2 j ltac:(lia) ltac:(lia)). unfold eqc in H2. congruence.
    + rewrite E2. cbn [bind]. eexists; split; [reflexivity|]. destruct HQ as (_ & Q2).
      unfold P in *. split.
      * intros H. apply Q2 in H. destruct H as [H1 H2].
        assert (H3 := proj1 HS H1). intros a b Ha Hb Hab.
        destruct (N.eq_dec a i); [subst; apply H2; lia | apply H3; lia].
      * intros H. apply Q2. split; [apply HS|]; intros; apply H; lia.
  - exists r. split; [exact E|]. unfold P in HP. split.
    + intros H. split; [reflexivity|]. intros i j Hi Hj Hij. apply (proj1 HP H); assumption.
    + intros [_ H]. apply HP. intros a b Ha Hb Hab. apply H; lia.
Qed.

(* left fold of xadd over the diagonal, starting from zero *)
Fixpoint diag_fold (n : nat) (A : dmat) : qx :=
  match n with
  | O => x0
  | S k => xadd (diag_fold k A) (entry A (N.of_nat k) (N.of_nat k))
  end.

Lemma diag_fold_dot n A : diag_fold n A = dot_fold n (fun k => entry A k k).
Proof. induction n as [|n IH]; cbn [diag_fold dot_fold]; [reflexivity | now rewrite IH]. Qed.

Theorem trace_spec A :
  wf A -> drow A = dcol A -> trace A = Ok (diag_fold (N.to_nat (drow A)) A).
Proof.
  intros W e. unfold trace. unfold wf in W. rewrite e in *. set (n := dcol A) in *.
  pose (P := fun (i : N) (st : qx * N) =>
    fst st = diag_fold (N.to_nat i) A /\ snd st = i * n + i).
  match goal with |- context [for_range ?a ?b ?body ?s] =>
    destruct (for_range_inv P a b body s) as (r & E & HP) end.
  - lia.
  - unfold P; cbn [fst snd]. split; [reflexivity | lia].
  - intros i [s off] [_ Hi] (H1 & H2). cbn [fst snd] in *. subst off.
    rewrite rd_ok by (rewrite W; apply idx_lt; lia). cbn [bind].
    eexists; split; [reflexivity|]. unfold P; cbn [fst snd]. split; [|lia].
    replace (N.to_nat (i + 1)) with (S (N.to_nat i)) by lia. cbn [diag_fold].
    rewrite N2Nat.id, H1. reflexivity.
  - rewrite E. cbn [bind]. destruct HP as (H1 & _). now rewrite H1.
Qed.
