(* C24 obligation: scaling a row scales the determinant *)
From SE Require Import C24.DenseModel C24.DenseSpec C24.DetTheory.
Local Open Scope N_scope.
Local Open Scope res_scope.
Theorem C24_det_row_scale :
  forall n A a c,
  a < N.of_nat n -> det n (fm_scale a c A) = (c * det n A)%Qc.
Proof. exact det_row_scale. Qed.
Print Assumptions C24_det_row_scale.
