(* C24 -- Gauss-Jordan elimination, the mathematical side: list lemmas about pivot-column
   lists, invariance of (partial) echelon forms, reduced or not, under the operations the
   eliminations perform, the meaning of row equivalence (same null space), and the row
   equivalence of one elimination step whatever its multipliers ([fm_comb_equiv]). *)
From SE Require Import C24.DenseModel C24.DenseBase C24.DenseSpec C24.DenseOps.
From Coq Require Import Lia ZifyBool ZifyNat ZifyN.
Local Open Scope N_scope.
Local Open Scope res_scope.

Lemma lenN_app {A} (l l' : list A) : lenN (l ++ l') = lenN l + lenN l'.
Proof. unfold lenN. rewrite app_length. lia. Qed.

Lemma lenN_snoc {A} (l : list A) x : lenN (l ++ [x]) = lenN l + 1.
Proof. rewrite lenN_app. reflexivity. Qed.

Lemma lenN_cons {A} (x : A) l : lenN (x :: l) = lenN l + 1.
Proof. unfold lenN. cbn [length]. lia. Qed.

Lemma nthN_app_l l l' k : k < lenN l -> nthN (l ++ l') k = nthN l k.
Proof. intros H. unfold nthN. apply app_nth1. unfold lenN in H. lia. Qed.

Lemma nthN_middle l x l' : nthN (l ++ x :: l') (lenN l) = x.
Proof. unfold nthN, lenN. rewrite Nat2N.id. apply nth_middle. Qed.

Lemma nthN_snoc l x : nthN (l ++ [x]) (lenN l) = x.
Proof. apply nthN_middle. Qed.

Lemma increasing_adj l n : increasing l -> (S n < length l)%nat -> nth n l 0 < nth (S n) l 0.
Proof.
  revert n. induction l as [|a l IH]; intros n H Hn; [cbn in Hn; lia|].
  destruct l as [|b l']; [cbn in Hn; lia|].
  destruct H as [Hab Hr]. destruct n as [|n].
  - exact Hab.
  - change (nth n (b :: l') 0 < nth (S n) (b :: l') 0). apply IH; [exact Hr|]. cbn [length] in *. lia.
Qed.

Lemma increasing_nth l a b : increasing l -> (a < b)%nat -> (b < length l)%nat -> nth a l 0 < nth b l 0.
Proof.
  intros H Hab Hb. induction b as [|b IH]; [lia|].
  destruct (Nat.eq_dec a b) as [->|ne].
  - apply increasing_adj; assumption.
  - apply N.lt_trans with (nth b l 0).
    + apply IH; lia.
    + apply increasing_adj; assumption.
Qed.

Lemma increasing_nthN l a b : increasing l -> a < b -> b < lenN l -> nthN l a < nthN l b.
Proof. intros H Hab Hb. unfold nthN. unfold lenN in Hb. apply increasing_nth; [assumption | lia | lia]. Qed.

Lemma increasing_snoc l x : increasing l -> (forall k, k < lenN l -> nthN l k < x) -> increasing (l ++ [x]).
Proof.
  induction l as [|a l IH]; intros H Hx.
  - cbn. auto.
  - destruct l as [|b l'].
    + cbn. split; [|auto]. apply (Hx 0). reflexivity.
    + destruct H as [Hab Hr]. change (increasing (a :: b :: (l' ++ [x]))).
      split; [exact Hab|]. apply IH; [exact Hr|].
      intros k Hk. specialize (Hx (k + 1)).
      unfold nthN in *. replace (N.to_nat (k + 1)) with (S (N.to_nat k)) in Hx by lia.
      apply Hx. rewrite (lenN_cons a). lia.
Qed.

(* row echelon form on the first c' columns: pc lists the pivot columns (increasing); row k
   has its leading entry, which satisfies [lead], in column pc[k] and zeros left of it; the
   rows a with [clr k a] are zero in that column; the rows from lenN pc on are zero; the
   columns >= c' are unconstrained.  [is_rref r c' M pc] unfolds to
   [echelon (fun x => x = 1) (fun k a => a <> k) r c' M pc]; "rref on the first i columns with
   pivots pc" is [is_rref r i M pc] *)
Definition echelon (lead : Qc -> Prop) (clr : N -> N -> Prop) (r c' : N) (M : fm) (pc : list N)
  : Prop :=
  increasing pc /\ lenN pc <= r /\
  (forall k, k < lenN pc ->
     nthN pc k < c' /\ lead (M k (nthN pc k)) /\
     (forall j, j < nthN pc k -> M k j = 0%Qc) /\
     (forall a, a < r -> clr k a -> M a (nthN pc k) = 0%Qc)) /\
  (forall a j, lenN pc <= a -> a < r -> j < c' -> M a j = 0%Qc).

(* exchanging or scaling rows that are zero on the first i columns changes nothing there *)
Lemma fm_swap_zero r i (M : fm) a b :
  (forall y, y < i -> M a y = 0%Qc) -> (forall y, y < i -> M b y = 0%Qc) ->
  fm_eq r i M (fm_swap a b M).
Proof.
  intros Ha Hb x y _ Hy. unfold fm_swap.
  destruct (N.eqb_spec x a) as [->|_]; [now rewrite Ha, Hb|].
  destruct (N.eqb_spec x b) as [->|_]; [now rewrite Ha, Hb | reflexivity].
Qed.

Lemma fm_scale_zero r i (M : fm) a k :
  (forall y, y < i -> M a y = 0%Qc) -> fm_eq r i M (fm_scale a k M).
Proof.
  intros Ha x y _ Hy. unfold fm_scale.
  destruct (N.eqb_spec x a) as [->|_]; [|reflexivity]. rewrite Ha by assumption. ring.
Qed.

Section Echelon.
Variables (lead : Qc -> Prop) (clr : N -> N -> Prop).

(* the form only looks at the window r x c' *)
Lemma echelon_ext r c' M M' pc :
  fm_eq r c' M M' -> echelon lead clr r c' M pc -> echelon lead clr r c' M' pc.
Proof.
  intros HE (Hinc & Hle & Hpiv & Hz). split; [|split; [|split]]; try assumption.
  - intros k Hk. destruct (Hpiv k Hk) as (P1 & P2 & P3 & P4).
    split; [|split; [|split]].
    + assumption.
    + rewrite <- HE by lia. assumption.
    + intros j Hj. rewrite <- HE by lia. now apply P3.
    + intros a Ha Hka. rewrite <- HE by lia. now apply P4.
  - intros a j H1 H2 H3. rewrite <- HE by lia. now apply Hz.
Qed.

Lemma echelon_nil r M : echelon lead clr r 0 M [].
Proof.
  split; [|split; [|split]].
  - exact I.
  - unfold lenN. cbn. lia.
  - intros k Hk. unfold lenN in Hk. cbn in Hk. lia.
  - intros a j _ _ Hj. lia.
Qed.

(* column i has nothing at or below row lenN pc: the form extends *)
Lemma echelon_skip r i M pc :
  echelon lead clr r i M pc -> (forall a, lenN pc <= a -> a < r -> M a i = 0%Qc) ->
  echelon lead clr r (i + 1) M pc.
Proof.
  intros (Hinc & Hle & Hpiv & Hz) Hcol. split; [|split; [|split]]; try assumption.
  - intros k Hk. destruct (Hpiv k Hk) as (P1 & P2 & P3 & P4).
    split; [|split; [|split]]; try assumption. lia.
  - intros a j H1 H2 H3. destruct (N.eq_dec j i) as [->|ne]; [now apply Hcol | apply Hz; lia].
Qed.

Lemma echelon_swap r i M pc a b :
  echelon lead clr r i M pc -> lenN pc <= a -> a < r -> lenN pc <= b -> b < r ->
  echelon lead clr r i (fm_swap a b M) pc.
Proof.
  intros H Ha Har Hb Hbr. apply (echelon_ext r i M); [|assumption].
  destruct H as (_ & _ & _ & Hz). apply fm_swap_zero; intros y Hy; now apply Hz.
Qed.

Lemma echelon_scale r i M pc a k :
  echelon lead clr r i M pc -> lenN pc <= a -> a < r -> echelon lead clr r i (fm_scale a k M) pc.
Proof.
  intros H Ha Har. apply (echelon_ext r i M); [|assumption].
  destruct H as (_ & _ & _ & Hz). apply fm_scale_zero; intros y Hy; now apply Hz.
Qed.

(* a new pivot in column i, row lenN pc: M' agrees with M on the first i columns, has a
   leading entry at (lenN pc, i), and column i is zero below it and in the rows to be clear *)
Lemma echelon_newpivot r i M M' pc :
  echelon lead clr r i M pc -> lenN pc < r ->
  fm_eq r i M M' -> lead (M' (lenN pc) i) ->
  (forall a, a < r -> lenN pc < a \/ clr (lenN pc) a -> M' a i = 0%Qc) ->
  echelon lead clr r (i + 1) M' (pc ++ [i]).
Proof.
  intros H Hlt HE Hlead Hcol.
  apply (echelon_ext r i M M' pc HE) in H. destruct H as (Hinc & Hle & Hpiv & Hz).
  set (idx := lenN pc) in *.
  split; [|split; [|split]].
  - apply increasing_snoc; [assumption|]. intros k Hk. now destruct (Hpiv k Hk).
  - rewrite lenN_snoc. fold idx. lia.
  - intros k Hk. rewrite lenN_snoc in Hk. fold idx in Hk.
    destruct (N.eq_dec k idx) as [->|ne].
    + assert (E : nthN (pc ++ [i]) idx = i) by apply nthN_snoc.
      rewrite E. split; [|split; [|split]].
      * lia.
      * exact Hlead.
      * intros j Hj. apply Hz; lia.
      * intros a Ha Hc. apply Hcol; [assumption | now right].
    + assert (Hk' : k < lenN pc) by (fold idx; lia).
      rewrite nthN_app_l by assumption.
      destruct (Hpiv k Hk') as (P1 & P2 & P3 & P4). split; [|split; [|split]]; try assumption. lia.
  - intros a j Ha Har Hj. rewrite lenN_snoc in Ha. fold idx in Ha.
    destruct (N.eq_dec j i) as [->|ne].
    + apply Hcol; [assumption | left; lia].
    + apply Hz; lia.
Qed.
End Echelon.

Lemma is_rref_ext r c M M' pc : fm_eq r c M M' -> is_rref r c M pc -> is_rref r c M' pc.
Proof. exact (echelon_ext (fun x => x = 1%Qc) (fun k a => a <> k) r c M M' pc). Qed.

Lemma is_rref_nil r M : is_rref r 0 M [].
Proof. exact (echelon_nil (fun x => x = 1%Qc) (fun k a => a <> k) r M). Qed.

Lemma is_rref_skip r i M pc :
  is_rref r i M pc -> (forall a, lenN pc <= a -> a < r -> M a i = 0%Qc) -> is_rref r (i + 1) M pc.
Proof. exact (echelon_skip (fun x => x = 1%Qc) (fun k a => a <> k) r i M pc). Qed.

Lemma is_rref_swap r i M pc a b :
  is_rref r i M pc -> lenN pc <= a -> a < r -> lenN pc <= b -> b < r -> is_rref r i (fm_swap a b M) pc.
Proof. exact (echelon_swap (fun x => x = 1%Qc) (fun k a => a <> k) r i M pc a b). Qed.

Lemma is_rref_scale r i M pc a k :
  is_rref r i M pc -> lenN pc <= a -> a < r -> is_rref r i (fm_scale a k M) pc.
Proof. exact (echelon_scale (fun x => x = 1%Qc) (fun k a => a <> k) r i M pc a k). Qed.

Definition fm_div (d : Qc) (M : fm) : fm := fun a b => (M a b / d)%Qc.

(* clearing column i with the pivot row idx: every other row a gets  row a - M a i * row idx *)
Definition fm_elim (idx i : N) (M : fm) : fm :=
  fun a b => if a =? idx then M a b else (M a b + (- M a i) * M idx b)%Qc.

Lemma is_rref_elim r i M pc :
  is_rref r i M pc -> lenN pc < r -> M (lenN pc) i = 1%Qc ->
  is_rref r (i + 1) (fm_elim (lenN pc) i M) (pc ++ [i]).
Proof.
  intros H Hlt H1. pose proof H as (_ & _ & _ & Hz).
  apply (echelon_newpivot (fun x => x = 1%Qc) (fun k a => a <> k) r i M _ pc H Hlt); unfold fm_elim.
  - intros a b _ Hb. destruct (N.eqb_spec a (lenN pc)); [reflexivity|].
    rewrite (Hz (lenN pc) b) by lia. ring.
  - now rewrite N.eqb_refl.
  - intros a _ Ha. destruct (N.eqb_spec a (lenN pc)); [lia|]. rewrite H1. ring.
Qed.

Lemma fm_mul_swap c a b A x i j :
  fm_mul c (fm_swap a b A) x i j = fm_mul c A x (if i =? a then b else if i =? b then a else i) j.
Proof. unfold fm_mul, fm_swap. destruct (i =? a); [reflexivity|]. destruct (i =? b); reflexivity. Qed.

Lemma fm_mul_scale c a k A x i j :
  fm_mul c (fm_scale a k A) x i j = if i =? a then (k * fm_mul c A x a j)%Qc else fm_mul c A x i j.
Proof.
  unfold fm_mul, fm_scale. destruct (i =? a); [|reflexivity].
  rewrite <- sumN_scale. apply sumN_ext. intros; ring.
Qed.

Lemma fm_mul_addrow c a b k A x i j :
  fm_mul c (fm_addrow a b k A) x i j =
  if i =? a then (fm_mul c A x a j + k * fm_mul c A x b j)%Qc else fm_mul c A x i j.
Proof.
  unfold fm_mul, fm_addrow. destruct (i =? a); [|reflexivity].
  rewrite <- sumN_scale, <- sumN_plus. apply sumN_ext. intros; ring.
Qed.

(* row equivalence is symmetric (each elementary operation has an elementary inverse) *)
Lemma row_equiv_sym r c A B : row_equiv r c A B -> row_equiv r c B A.
Proof.
  induction 1 as [A B HE | A a b Ha Hb | A a k Ha Hk | A a b k Ha Hb Hab | A B C _ IH1 _ IH2].
  - apply re_refl. intros i j Hi Hj. symmetry. now apply HE.
  - eapply re_trans; [apply (re_swap r c _ a b Ha Hb)|]. apply re_refl.
    intros i j _ _. unfold fm_swap.
    destruct (N.eqb_spec i a); [subst|].
    + destruct (N.eqb_spec b a); [now subst|]. now rewrite N.eqb_refl.
    + destruct (N.eqb_spec i b); [subst|reflexivity].
      now rewrite N.eqb_refl.
  - eapply re_trans; [apply (re_scale r c _ a (/ k)%Qc Ha)|].
    + intros H0. apply (Qcmult_inv_l k) in Hk. rewrite H0 in Hk. rewrite Qcmult_0_l in Hk.
      symmetry in Hk. now apply Q_apart_0_1 in Hk.
    + apply re_refl. intros i j _ _. unfold fm_scale.
      destruct (N.eqb_spec i a); [|reflexivity]. subst. rewrite N.eqb_refl.
      rewrite Qcmult_assoc. rewrite Qcmult_inv_l by assumption. ring.
  - eapply re_trans; [apply (re_addrow r c _ a b (- k)%Qc Ha Hb Hab)|].
    apply re_refl. intros i j _ _. unfold fm_addrow.
    destruct (N.eqb_spec i a); [|reflexivity]. subst. rewrite N.eqb_refl.
    destruct (N.eqb_spec b a); [congruence|]. ring.
  - eapply re_trans; eassumption.
Qed.

(* an elementary row operation keeps the solutions of  A x = 0  (x: c x s); by symmetry none
   is gained *)
Lemma row_equiv_null_sol_imp r c A B :
  row_equiv r c A B -> forall s x, null_sol r c s A x -> null_sol r c s B x.
Proof.
  induction 1 as [A B HE | A a b Ha Hb | A a k Ha Hk | A a b k Ha Hb Hab | A B C _ IH1 _ IH2];
    intros s x Hn; [| | | |now apply IH2, IH1]; intros i j Hi Hj; cbv beta.
  - rewrite <- (Hn i j Hi Hj). apply fm_mul_ext; intros k Hk; [symmetry; now apply HE | reflexivity].
  - rewrite fm_mul_swap. apply Hn; [|assumption].
    destruct (N.eqb_spec i a); [assumption|]. destruct (N.eqb_spec i b); assumption.
  - rewrite fm_mul_scale. destruct (N.eqb_spec i a); [|now apply Hn]. rewrite Hn by assumption. ring.
  - rewrite fm_mul_addrow. destruct (N.eqb_spec i a); [|now apply Hn]. rewrite !Hn by assumption. ring.
Qed.

Theorem row_equiv_null_sol r c A B :
  row_equiv r c A B -> forall s x, null_sol r c s A x <-> null_sol r c s B x.
Proof.
  intros H s x. split; apply row_equiv_null_sol_imp; [exact H | now apply row_equiv_sym].
Qed.

(* rows a < t other than idx become  al a * row a + be a * row idx: what every elimination
   loop of the model has done after t rows *)
Definition fm_comb (idx : N) (al be : N -> Qc) (M : fm) (t : N) : fm :=
  fun a b => if (a <? t) && negb (a =? idx) then (al a * M a b + be a * M idx b)%Qc else M a b.

Lemma fm_comb_equiv r c idx al be M t :
  idx < r -> (forall a, a < r -> al a <> 0%Qc) -> t <= r -> row_equiv r c M (fm_comb idx al be M t).
Proof.
  intros Hidx Hal. induction t as [|t IH] using N.peano_ind; intros Ht.
  - apply re_refl. intros a b _ _. unfold fm_comb. destruct (N.ltb_spec a 0); [lia | reflexivity].
  - rewrite <- N.add_1_r in *. specialize (IH ltac:(lia)).
    destruct (N.eq_dec t idx) as [->|ne].
    + eapply re_trans; [exact IH|]. apply re_refl. intros a b _ _. unfold fm_comb.
      ffj_cases; reflexivity.
    + eapply re_trans; [exact IH|].
      eapply re_trans; [apply (re_scale r c _ t (al t)); [lia | apply Hal; lia]|].
      eapply re_trans; [apply (re_addrow r c _ t idx (be t)); [lia | assumption | assumption]|].
      apply re_refl. intros a b _ _. unfold fm_addrow, fm_scale, fm_comb.
      ffj_cases; reflexivity.
Qed.

Lemma fm_elim_equiv r c idx i M : idx < r -> row_equiv r c M (fm_elim idx i M).
Proof.
  intros Hidx. eapply re_trans.
  - apply (fm_comb_equiv r c idx (fun _ => 1%Qc) (fun a => (- M a i)%Qc) M r Hidx); [|lia].
    intros _ _. exact Q_apart_0_1.
  - apply re_refl. intros a b Ha _. unfold fm_comb, fm_elim. ffj_cases; ring.
Qed.
