(* C24 -- (1) reduced_row_echelon_form with normalize_last = true: the fraction-free
   Gauss-Jordan elimination followed by the pivot-column scan, which divides the whole
   matrix by the first pivot it meets (the entry at row 0) and so turns the scaled rref into
   the reduced row echelon form.
   (2) uniqueness of the reduced row echelon form: both settings of normalize_last return
   the same result.
   (3) fraction_free_gauss_jordan_solve (pivot = true) and inverse_gauss_jordan on square
   systems: an Ok result is the solution / the inverse, and the result is Ok exactly when
   the matrix is non-singular (otherwise the routine throws: ErrExn EXN_RANKDEF, since the repair 093e8f2). *)
From SE Require Import C24.DenseModel C24.DenseBase C24.DenseSpec C24.DenseOps C24.DenseOps2 C24.DenseGJ C24.DenseGJ2 C24.DenseFFGJ
  C24.DenseSolve.
From Coq Require Import Lia ZifyBool ZifyNat ZifyN.
Local Open Scope N_scope.
Local Open Scope res_scope.

Lemma rref_true_unfold A B :
  reduced_row_echelon_form A B true =
  do r <- pivoted_fraction_free_gauss_jordan_elimination A B [];
  do st <- rref_scan true (fst r);
  let '(b, pc, _) := st in Ok (b, pc).
Proof. reflexivity. Qed.

(* reduced_row_echelon_form(A, B, pivot_cols, normalize_last = true): total; B'' is a good
   matrix, row equivalent to A, in reduced row echelon form, and pivot_cols is the list of
   its pivot columns.  B'' is the result B' of the fraction-free elimination divided by its
   common pivot value (B' itself when A has no pivot, i.e. is zero). *)
Theorem rref_normalize_last_spec A B r c :
  good A r c -> drow B = r -> dcol B = c ->
  exists B'' pc, reduced_row_echelon_form A B true = Ok (B'', pc) /\
    good B'' r c /\ row_equiv r c (fm_of A) (fm_of B'') /\ is_rref r c (fm_of B'') pc /\
    (forall pc', is_rref r c (fm_of B'') pc' -> pc' = pc) /\
    (exists B' pl d, pivoted_fraction_free_gauss_jordan_elimination A B [] = Ok (B', pl) /\
       d <> 0%Qc /\ fm_eq r c (fm_of B'') (fun a b => (fm_of B' a b / d)%Qc)).
Proof.
  intros HG Hr Hc.
  destruct (pffgj_spec A B r c HG Hr Hc) as (B' & pl & E & HG' & HE & pc & d & Hd & Hrr).
  rewrite rref_true_unfold, E. cbn [bind fst].
  destruct (rref_scan_gen true B' r c pc d HG' Hd ltac:(discriminate) Hrr)
    as (B2 & E2 & HG2 & Hnil & Hcons).
  rewrite E2. cbn [bind]. exists B2, pc. split; [reflexivity|]. split; [assumption|].
  destruct (scaled_rref_entries r c (fm_of B') pc d Hd Hrr) as [_ Hz].
  assert (HX : exists d', d' <> 0%Qc /\ fm_eq r c (fm_of B2) (fm_div d' (fm_of B')) /\
                 is_rref r c (fm_div d' (fm_of B')) pc).
  { destruct (N.eq_dec (lenN pc) 0) as [e0|n0].
    - exists 1%Qc. split; [exact Q_apart_0_1|]. rewrite (Hnil (or_introl e0)). split.
      + intros a b _ _. unfold fm_div. now rewrite qcdiv_1_r.
      + apply is_rref_ext with (M := fm_div d (fm_of B')); [|assumption].
        intros a b Ha Hb. unfold fm_div. rewrite (Hz a b) by (assumption || lia).
        unfold Qcdiv. ring.
    - exists d. split; [assumption|]. split; [apply Hcons; lia | assumption]. }
  destruct HX as (d' & Hd' & HF & Hrr').
  assert (Hrr2 : is_rref r c (fm_of B2) pc).
  { apply is_rref_ext with (M := fm_div d' (fm_of B')); [|assumption].
    intros a b Ha Hb. symmetry. now apply HF. }
  split; [|split; [|split]].
  - eapply re_trans; [exact HE|].
    eapply re_trans; [apply (fm_scale_all_equiv r c (/ d')%Qc); now apply qcinv_nz|].
    apply re_refl. intros a b Ha Hb. rewrite HF by assumption. unfold fm_div, Qcdiv. ring.
  - assumption.
  - intros pc' H'. now apply (is_rref_pivots_unique B2 r c).
  - exists B', pl, d'. split; [reflexivity|]. split; [assumption|]. exact HF.
Qed.

(* consequence: A x = 0 and B'' x = 0 have the same solutions *)
Corollary rref_normalize_last_null_space A B r c B'' pc :
  good A r c -> drow B = r -> dcol B = c ->
  reduced_row_echelon_form A B true = Ok (B'', pc) ->
  forall s x, null_sol r c s (fm_of A) x <-> null_sol r c s (fm_of B'') x.
Proof.
  intros HG Hr Hc E.
  destruct (rref_normalize_last_spec A B r c HG Hr Hc) as (B2 & pc2 & E' & _ & HE & _).
  rewrite E in E'. inversion E'; subst. now apply row_equiv_null_sol.
Qed.

(* ================================================================== uniqueness of the rref *)
(* two matrices in reduced row echelon form with the same null space are equal and have
   the same pivot columns; hence both settings of normalize_last return the same result *)

Lemma sumN_two n f j q :
  j < n -> q < n -> j <> q -> (forall t, t < n -> t <> j -> t <> q -> f t = 0%Qc) ->
  sumN n f = (f j + f q)%Qc.
Proof.
  intros Hj Hq Hne H.
  rewrite (sumN_ext n f (fun t => (if t =? j then f j else 0) + (if t =? q then f q else 0))%Qc).
  - rewrite sumN_plus.
    rewrite (sumN_single n _ j Hj).
    2:{ intros k _ Hk. destruct (N.eqb_spec k j); [contradiction | reflexivity]. }
    rewrite (sumN_single n _ q Hq).
    2:{ intros k _ Hk. destruct (N.eqb_spec k q); [contradiction | reflexivity]. }
    now rewrite !N.eqb_refl.
  - intros t Ht. destruct (N.eqb_spec t j) as [e1|n1], (N.eqb_spec t q) as [e2|n2].
    + congruence.
    + subst. ring.
    + subst. ring.
    + rewrite H by assumption. ring.
Qed.

Fixpoint posN (pc : list N) (t : N) : option N :=
  match pc with
  | [] => None
  | p :: rest => if p =? t then Some 0 else option_map N.succ (posN rest t)
  end.

Lemma posN_some pc : forall t k, posN pc t = Some k -> k < lenN pc /\ nthN pc k = t.
Proof.
  induction pc as [|p rest IH]; intros t k H; cbn [posN] in H; [discriminate|].
  rewrite lenN_cons. destruct (N.eqb_spec p t) as [e|ne].
  - inversion H; subst. split; [lia | reflexivity].
  - destruct (posN rest t) as [k'|] eqn:E; [|discriminate]. inversion H; subst.
    destruct (IH t k' E) as [H1 H2]. split; [lia|].
    unfold nthN in *. replace (N.to_nat (N.succ k')) with (S (N.to_nat k')) by lia. exact H2.
Qed.

Lemma posN_none pc : forall t, posN pc t = None -> forall k, k < lenN pc -> nthN pc k <> t.
Proof.
  induction pc as [|p rest IH]; intros t H k Hk; [unfold lenN in Hk; cbn in Hk; lia|].
  cbn [posN] in H. destruct (N.eqb_spec p t) as [e|ne]; [discriminate|].
  destruct (posN rest t) eqn:E; [discriminate|].
  destruct (N.eq_dec k 0) as [->|nk]; [exact ne|].
  rewrite lenN_cons in Hk. specialize (IH _ E (k - 1) ltac:(lia)).
  unfold nthN in *. replace (N.to_nat k) with (S (N.to_nat (k - 1))) by lia. exact IH.
Qed.

Lemma posN_nth pc k : increasing pc -> k < lenN pc -> posN pc (nthN pc k) = Some k.
Proof.
  intros Hinc Hk. destruct (posN pc (nthN pc k)) as [k'|] eqn:E.
  - apply posN_some in E. destruct E as [H1 H2]. f_equal.
    destruct (N.lt_trichotomy k' k) as [H|[H|H]]; [exfalso | assumption | exfalso].
    + pose proof (increasing_nthN pc k' k Hinc H Hk). lia.
    + pose proof (increasing_nthN pc k k' Hinc H H1). lia.
  - exfalso. exact (posN_none pc _ E k Hk eq_refl).
Qed.

(* for a column j: y_j = 1, y_(pc k) = - M k j for the pivot columns left of j, else 0 *)
Definition yv (M : fm) (pc : list N) (j : N) : fm :=
  fun t _ => if t =? j then 1%Qc
             else match posN pc t with
                  | Some k => if t <? j then (- M k j)%Qc else 0%Qc
                  | None => 0%Qc
                  end.

Lemma yv_above M pc j t u : j < t -> yv M pc j t u = 0%Qc.
Proof.
  intros H. unfold yv. destruct (N.eqb_spec t j); [lia|].
  destruct (posN pc t); [|reflexivity]. destruct (N.ltb_spec t j); [lia | reflexivity].
Qed.

Lemma yv_at M pc j u : yv M pc j j u = 1%Qc.
Proof. unfold yv. now rewrite N.eqb_refl. Qed.

(* row a of M' * y for an M' in rref with the pivot columns pc *)
Lemma rref_mul_yv r c M' M pc j a :
  is_rref r c M' pc -> j < c -> posN pc j = None -> a < lenN pc ->
  fm_mul c M' (yv M pc j) a 0 = (M' a j + (if nthN pc a <? j then - M a j else 0))%Qc.
Proof.
  intros (Hinc & Hle & Hpiv & Hz) Hj Hnp Ha.
  destruct (Hpiv a Ha) as (P1 & P2 & P3 & P4).
  assert (Hqj : nthN pc a <> j) by exact (posN_none pc j Hnp a Ha).
  unfold fm_mul.
  rewrite (sumN_two c _ j (nthN pc a) Hj P1 (fun e => Hqj (eq_sym e))).
  - unfold yv. rewrite N.eqb_refl. destruct (N.eqb_spec (nthN pc a) j); [contradiction|].
    rewrite (posN_nth pc a Hinc Ha). rewrite P2. ring.
  - intros t Ht Htj Htq. unfold yv. destruct (N.eqb_spec t j); [contradiction|].
    destruct (posN pc t) as [k|] eqn:Ek; [|ring].
    apply posN_some in Ek. destruct Ek as [Hk1 Hk2].
    assert (Hka : k <> a) by (intros ->; apply Htq; now symmetry).
    destruct (Hpiv k Hk1) as (_ & _ & _ & Q4). rewrite <- Hk2.
    rewrite (Q4 a ltac:(lia) ltac:(congruence)). ring.
Qed.

Lemma yv_null r c M pc j :
  is_rref r c M pc -> j < c -> posN pc j = None -> null_sol r c 1 M (yv M pc j).
Proof.
  intros Hrr Hj Hnp a u Ha Hu. assert (u = 0) by lia. subst u.
  destruct (N.ltb_spec a (lenN pc)) as [Hlt|Hge].
  - rewrite (rref_mul_yv r c M M pc j a Hrr Hj Hnp Hlt).
    destruct Hrr as (Hinc & Hle & Hpiv & Hz). destruct (Hpiv a Hlt) as (P1 & P2 & P3 & P4).
    destruct (N.ltb_spec (nthN pc a) j) as [H|H]; [ring|].
    pose proof (posN_none pc j Hnp a Hlt). rewrite P3 by lia. ring.
  - destruct Hrr as (Hinc & Hle & Hpiv & Hz). unfold fm_mul. apply sumN_zero.
    intros t Ht. rewrite (Hz a t) by assumption. ring.
Qed.

(* a null vector that vanishes right of a pivot column vanishes in that column *)
Lemma rref_pivot_nonull r c M pc k y :
  is_rref r c M pc -> k < lenN pc -> null_sol r c 1 M y ->
  (forall t, nthN pc k < t -> t < c -> y t 0 = 0%Qc) -> y (nthN pc k) 0 = 0%Qc.
Proof.
  intros (Hinc & Hle & Hpiv & Hz) Hk Hn Hy.
  destruct (Hpiv k Hk) as (P1 & P2 & P3 & P4).
  specialize (Hn k 0 ltac:(lia) ltac:(lia)). cbv beta in Hn. unfold fm_mul in Hn.
  rewrite (sumN_single c _ (nthN pc k) P1) in Hn.
  - rewrite P2 in Hn. rewrite <- Hn. ring.
  - intros t Ht Hne. destruct (N.lt_trichotomy t (nthN pc k)) as [H|[H|H]]; [|contradiction|].
    + rewrite P3 by assumption. ring.
    + rewrite Hy by assumption. ring.
Qed.

(* every pivot column of M is a pivot column of M' when ker M' is contained in ker M *)
Lemma rref_pivot_transfer r c M M' pc pc' :
  (forall y, null_sol r c 1 M' y -> null_sol r c 1 M y) ->
  is_rref r c M pc -> is_rref r c M' pc' ->
  forall k, k < lenN pc -> posN pc' (nthN pc k) <> None.
Proof.
  intros Hns H H' k Hk Hnp.
  assert (Hj : nthN pc k < c).
  { destruct H as (_ & _ & Hpiv & _). now destruct (Hpiv k Hk). }
  pose proof (Hns _ (yv_null r c M' pc' _ H' Hj Hnp)) as Hn.
  pose proof (rref_pivot_nonull r c M pc k _ H Hk Hn) as H0.
  rewrite yv_at in H0. apply Q_apart_0_1. apply H0.
  intros t Ht _. now apply yv_above.
Qed.

Lemma increasing_head_lt a l x : increasing (a :: l) -> In x l -> a < x.
Proof.
  revert a. induction l as [|b l IH]; intros a H Hin; [destruct Hin|].
  destruct H as [Hab Hr]. destruct Hin as [<-|Hin]; [exact Hab|].
  apply N.lt_trans with b; [exact Hab|]. now apply IH.
Qed.

Lemma increasing_tail a l : increasing (a :: l) -> increasing l.
Proof. intros [_ H]. exact H. Qed.

Lemma increasing_ext l : forall l',
  increasing l -> increasing l' -> (forall x, In x l <-> In x l') -> l = l'.
Proof.
  induction l as [|a l IH]; intros [|b l'] H H' Hio.
  - reflexivity.
  - exfalso. apply (proj2 (Hio b)). now left.
  - exfalso. apply (proj1 (Hio a)). now left.
  - assert (a = b).
    { destruct (proj1 (Hio a) (or_introl eq_refl)) as [e|Hin]; [now symmetry|].
      destruct (proj2 (Hio b) (or_introl eq_refl)) as [e|Hin']; [assumption|].
      pose proof (increasing_head_lt b l' a H' Hin).
      pose proof (increasing_head_lt a l b H Hin'). lia. }
    subst b. f_equal. apply IH; [now apply increasing_tail in H | now apply increasing_tail in H' |].
    intros x; split; intros Hx.
    + destruct (proj1 (Hio x) (or_intror Hx)) as [e|Hin]; [|assumption].
      subst x. pose proof (increasing_head_lt a l a H Hx). lia.
    + destruct (proj2 (Hio x) (or_intror Hx)) as [e|Hin]; [|assumption].
      subst x. pose proof (increasing_head_lt a l' a H' Hx). lia.
Qed.

Lemma In_nthN l x : In x l <-> exists k, k < lenN l /\ nthN l k = x.
Proof.
  split.
  - intros H. apply (In_nth l x 0) in H. destruct H as (n & Hn & E).
    exists (N.of_nat n). split; [unfold lenN; lia|]. unfold nthN. now rewrite Nat2N.id.
  - intros (k & Hk & <-). unfold nthN. apply nth_In. unfold lenN in Hk. lia.
Qed.

Theorem rref_unique r c M M' pc pc' :
  (forall y, null_sol r c 1 M y <-> null_sol r c 1 M' y) ->
  is_rref r c M pc -> is_rref r c M' pc' ->
  pc = pc' /\ fm_eq r c M M'.
Proof.
  intros Hns H H'.
  assert (Epc : pc = pc').
  { apply increasing_ext.
    - now destruct H.
    - now destruct H'.
    - intros x. rewrite !In_nthN. split; intros (k & Hk & <-).
      + pose proof (rref_pivot_transfer r c M M' pc pc' (fun y => proj2 (Hns y)) H H' k Hk) as Hp.
        destruct (posN pc' (nthN pc k)) as [k'|] eqn:E; [|contradiction].
        exists k'. now apply posN_some.
      + pose proof (rref_pivot_transfer r c M' M pc' pc (fun y => proj1 (Hns y)) H' H k Hk) as Hp.
        destruct (posN pc (nthN pc' k)) as [k'|] eqn:E; [|contradiction].
        exists k'. now apply posN_some. }
  split; [exact Epc|]. subst pc'.
  intros a j Ha Hj.
  pose proof H as (Hinc & Hle & Hpiv & Hz). pose proof H' as (_ & _ & Hpiv' & Hz').
  destruct (posN pc j) as [k|] eqn:Ek.
  - apply posN_some in Ek. destruct Ek as [Hk <-].
    destruct (Hpiv k Hk) as (_ & P2 & _ & P4). destruct (Hpiv' k Hk) as (_ & P2' & _ & P4').
    destruct (N.eq_dec a k) as [->|ne]; [now rewrite P2, P2'|].
    now rewrite P4, P4' by assumption.
  - destruct (N.ltb_spec a (lenN pc)) as [Hlt|Hge].
    + pose proof (proj1 (Hns _) (yv_null r c M pc j H Hj Ek)) as Hn.
      specialize (Hn a 0 Ha ltac:(lia)). cbv beta in Hn.
      rewrite (rref_mul_yv r c M' M pc j a H' Hj Ek Hlt) in Hn.
      destruct (Hpiv a Hlt) as (_ & _ & P3 & _). destruct (Hpiv' a Hlt) as (_ & _ & P3' & _).
      pose proof (posN_none pc j Ek a Hlt).
      destruct (N.ltb_spec (nthN pc a) j) as [Hq|Hq].
      * rewrite <- (Qcplus_0_r (M a j)), <- Hn. ring.
      * now rewrite P3, P3' by lia.
    + now rewrite Hz, Hz' by assumption.
Qed.

Corollary rref_unique_equiv r c M M' pc pc' :
  row_equiv r c M M' -> is_rref r c M pc -> is_rref r c M' pc' -> pc = pc' /\ fm_eq r c M M'.
Proof.
  intros HE. apply rref_unique. intros y. now apply row_equiv_null_sol.
Qed.

(* both settings of normalize_last return the same matrix and the same pivot columns *)
Corollary rref_flags_agree A B r c :
  good A r c -> drow B = r -> dcol B = c ->
  exists R pc, reduced_row_echelon_form A B false = Ok (R, pc) /\
               reduced_row_echelon_form A B true = Ok (R, pc).
Proof.
  intros HG Hr Hc.
  destruct (reduced_row_echelon_form_spec A B r c HG Hr Hc)
    as (B1 & pc1 & E1 & _ & HG1 & HE1 & Hrr1 & _).
  destruct (rref_normalize_last_spec A B r c HG Hr Hc) as (B2 & pc2 & E2 & HG2 & HE2 & Hrr2 & _).
  destruct (rref_unique_equiv r c (fm_of B1) (fm_of B2) pc1 pc2) as [Epc HF]; try assumption.
  { eapply re_trans; [apply row_equiv_sym; exact HE1 | exact HE2]. }
  subst pc2. assert (EB : B1 = B2).
  { destruct HG1 as (W1 & F1 & Hr1 & Hc1), HG2 as (W2 & F2 & Hr2 & Hc2).
    apply dmat_ext; try assumption; try congruence.
    intros i j Hi Hj. rewrite (fin_entry B1 i j W1 F1 Hi Hj).
    rewrite (fin_entry B2 i j W2 F2) by congruence.
    f_equal. apply HF; congruence. }
  subst B2. exists B1, pc1. split; assumption.
Qed.

(* ================================================================== the solver *)
(* fraction_free_gauss_jordan_solve(A, b, x, pivot = true) on a square system: the same
   elimination applied to the pair (A_, b_); index = i in every column, a column without
   pivot makes the routine throw (ErrExn EXN_RANKDEF).  Partial correctness: an Ok result
   solves A x = b. *)

(* the exchange of rows p and i of A_ on the columns i .. col - 1 *)
Definition ffs_swap_a (col i p : N) (am : list qx) : res (list qx) :=
  for_range i col (fun k am =>
    do a <- rd am (p * col + k);
    do c <- rd am (i * col + k);
    do am <- wr am (p * col + k) c;
    wr am (i * col + k) a) am.

(* row j of b_ *)
Definition ffs_brow (col bcol i j : N) (dopt : option qx) (am bm : list qx) : res (list qx) :=
  for_range 0 bcol (fun k bm =>
    do aii <- rd am (i * col + i);
    do bjk <- rd bm (j * bcol + k);
    do aji <- rd am (j * col + i);
    do bik <- rd bm (i * bcol + k);
    wr bm (j * bcol + k) (ff_update aii bjk aji bik dopt)) bm.

Definition ffs_rows (col bcol i : N) (dopt : option qx) (st : list qx * list qx)
  : res (list qx * list qx) :=
  for_range 0 col (fun j (st : list qx * list qx) =>
      if j =? i then Ok st else
      let (am, bm) := st in
      do bm <- ffs_brow col bcol i j dopt am bm;
      do am <- ffj_row col i i j dopt am;
      Ok (am, bm)) st.

Definition ffs_body (col bcol : N) (i : N) (st : list qx * list qx) : res (list qx * list qx) :=
  let (am, bm) := st in
  do d <- (if 0 <? i then do d <- rd am (i * col - col + i - 1); Ok (Some d) else Ok None);
  do st <- (do p <- ffgj_find (N.to_nat (col - i)) i am col i;
            if p =? col then ErrExn EXN_RANKDEF else
            if p =? i then Ok (am, bm) else
            do am <- ffs_swap_a col i p am;
            do bm <- row_exchange bm bcol p i;
            Ok (am, bm));
  do st <- ffs_rows col bcol i d st;
  let (am, bm) := st in
  do am <- ffj_zero col col i i am;
  Ok (am, bm).

Lemma ffs_unfold A b x :
  fraction_free_gauss_jordan_solve A b x true =
  do st <- for_range 0 (dcol A) (ffs_body (dcol A) (dcol b)) (dm A, dm b);
  let (am, bm) := st in
  do xm <- diag_div_loop (dcol A) (dcol b) am bm (dm x);
  Ok (setm x xm).
Proof. reflexivity. Qed.

Lemma ffgj_find_spec am n MA i p0 :
  repr am n n MA -> i < n -> p0 <= n ->
  exists p, ffgj_find (N.to_nat (n - p0)) p0 am n i = Ok p /\ p0 <= p <= n /\
    (forall t, p0 <= t < p -> MA t i = 0%Qc) /\ (p < n -> MA p i <> 0%Qc).
Proof.
  intros HR Hi. remember (N.to_nat (n - p0)) as k eqn:Hk. revert p0 Hk.
  induction k as [|k IH]; intros p0 Hk Hp0; cbn [ffgj_find].
  - exists p0. assert (p0 = n) by lia. subst. split; [reflexivity|]. split; [lia|].
    split; [intros; lia | lia].
  - rewrite (repr_rd am n n MA HR) by lia. cbn [bind].
    destruct (x_is_zero (Fin (MA p0 i))) eqn:Ez.
    + apply x_is_zero_fin in Ez.
      destruct (IH (p0 + 1)) as (p & E & Hp & Hz & Hnz); [lia | lia |].
      exists p. split; [exact E|]. split; [lia|]. split; [|assumption].
      intros t Ht. destruct (N.eq_dec t p0); [now subst | apply Hz; lia].
    + cbn [x_is_zero] in Ez. apply qc_is_zero_false in Ez.
      exists p0. split; [reflexivity|]. split; [lia|]. split; [intros; lia | now intros].
Qed.

Lemma ffs_swap_a_spec am n MA i p :
  repr am n n MA -> i < n -> p < n -> p <> i ->
  exists am', ffs_swap_a n i p am = Ok am' /\
    repr am' n n (fun a b => if i <=? b then fm_swap p i MA a b else MA a b).
Proof.
  intros HR Hi Hp Hne. unfold ffs_swap_a.
  pose (F := fun (t a b : N) => if (i <=? b) && (b <? t) then fm_swap p i MA a b else MA a b).
  apply (repr_loop n n F MA); [lia | exact HR | | |].
  - intros a b _ _. unfold F. ffj_cases; reflexivity.
  - intros t s [Ht1 Ht] HRs.
    rewrite !(repr_rd s n n _ HRs) by lia. cbn [bind].
    destruct (repr_wr s n n (F t) _ p t (F t i t) HRs Hp Ht (fun _ _ _ _ => eq_refl))
      as (s1 & E1 & HR1).
    rewrite E1. cbn [bind]. apply (repr_wr s1 n n _ _ i t _ HR1 Hi Ht).
    intros a b _ _. unfold fm_set, F, fm_swap. clear - Ht1 Ht Hne. ffj_cases; reflexivity.
  - intros a b _ Hb. unfold F. ffj_cases; reflexivity.
Qed.

(* no pivot: p = col, the first access of the exchange is outside the vector *)
Lemma ffs_swap_a_oob am n i :
  lenN am = n * n -> i < n -> exists a b, ffs_swap_a n i n am = ErrOOB a b.
Proof.
  intros HL Hi. unfold ffs_swap_a, for_range.
  destruct (N.to_nat (n - i)) as [|k] eqn:Ek; [lia|].
  rewrite for_up_S. rewrite rd_oob by (rewrite HL; lia). cbn [bind]. eauto.
Qed.

Lemma ffs_brow_spec am bm n s MA MB i j dx d :
  repr am n n MA -> repr bm n s MB -> i < n -> j < n -> j <> i -> dcond i dx d ->
  exists bm', ffs_brow n s i j (if i =? 0 then None else Some dx) am bm = Ok bm' /\
    repr bm' n s (fun a b => if a =? j then ((MA i i * MB a b - MA a i * MB i b) / d)%Qc
                             else MB a b).
Proof.
  intros HRa HRb Hi Hj Hne Hdc. unfold ffs_brow.
  pose (F := fun (t a b : N) =>
    if (a =? j) && (b <? t) then ((MA i i * MB a b - MA a i * MB i b) / d)%Qc else MB a b).
  apply (repr_loop n s F MB); [lia | exact HRb | | |].
  - intros a b _ _. unfold F. ffj_cases; reflexivity.
  - intros t sb [_ Ht] HRs.
    rewrite !(repr_rd am n n MA HRa), !(repr_rd sb n s _ HRs) by lia. cbn [bind].
    rewrite (ff_update_fin i dx d) by assumption.
    apply (repr_wr sb n s (F t)); try assumption.
    intros a b _ _. unfold fm_set, F. ffj_cases; reflexivity.
  - intros a b _ Hb. unfold F. ffj_cases; reflexivity.
Qed.

Lemma ffs_rows_spec am bm n s MA MB i dx d :
  repr am n n MA -> repr bm n s MB -> i < n -> dcond i dx d ->
  exists am' bm', ffs_rows n s i (if i =? 0 then None else Some dx) (am, bm) = Ok (am', bm') /\
    repr am' n n (fm_ffjrows i i d MA) /\
    repr bm' n s (fun a b => if a =? i then MB a b
                             else ((MA i i * MB a b - MA a i * MB i b) / d)%Qc).
Proof.
  intros HRa HRb Hi Hdc. unfold ffs_rows.
  pose (FA := fun (t a b : N) =>
    if (a <? t) && negb (a =? i) && negb (b =? i)
    then ((MA i i * MA a b - MA a i * MA i b) / d)%Qc else MA a b).
  pose (FB := fun (t a b : N) =>
    if (a <? t) && negb (a =? i)
    then ((MA i i * MB a b - MA a i * MB i b) / d)%Qc else MB a b).
  pose (P := fun (t : N) (st : list qx * list qx) =>
    let (sa, sb) := st in repr sa n n (FA t) /\ repr sb n s (FB t)).
  destruct (for_range_inv P 0 n
    (fun j (st : list qx * list qx) =>
      if j =? i then Ok st else
      let (am, bm) := st in
      do bm <- ffs_brow n s i j (if i =? 0 then None else Some dx) am bm;
      do am <- ffj_row n i i j (if i =? 0 then None else Some dx) am;
      Ok (am, bm)) (am, bm)) as ([am' bm'] & E & HPa & HPb).
  - lia.
  - split.
    + apply (repr_ext am n n MA _ HRa). intros a b _ _. unfold FA. ffj_cases; reflexivity.
    + apply (repr_ext bm n s MB _ HRb). intros a b _ _. unfold FB. ffj_cases; reflexivity.
  - intros t [sa sb] [_ Ht] [HPa HPb].
    destruct (N.eqb_spec t i) as [->|nti].
    + exists (sa, sb). split; [reflexivity|]. split.
      * apply (repr_ext sa n n (FA i) _ HPa). intros a b _ _. unfold FA. clear. ffj_cases; reflexivity.
      * apply (repr_ext sb n s (FB i) _ HPb). intros a b _ _. unfold FB. ffj_cases; reflexivity.
    + destruct (ffs_brow_spec sa sb n s (FA t) (FB t) i t dx d HPa HPb Hi Ht nti Hdc)
        as (sb' & Eb & HRb').
      rewrite Eb. cbn [bind].
      destruct (ffj_row_spec sa n n (FA t) i i t dx d HPa Hi Ht nti Hi Hdc) as (sa' & Ea & HRa').
      rewrite Ea. cbn [bind].
      exists (sa', sb'). split; [reflexivity|]. split.
      * apply (repr_ext sa' n n _ _ HRa'). intros a b _ _. unfold fm_ffjrow, FA.
        clear - nti Ht. ffj_cases; reflexivity.
      * apply (repr_ext sb' n s _ _ HRb'). intros a b _ _. unfold FA, FB.
        clear - nti Ht. ffj_cases; reflexivity.
  - exists am', bm'. split; [exact E|]. split.
    + apply (repr_ext am' n n (FA n) _ HPa). intros a b Ha _. unfold FA, fm_ffjrows.
      ffj_cases; reflexivity.
    + apply (repr_ext bm' n s (FB n) _ HPb). intros a b Ha _. unfold FB.
      ffj_cases; reflexivity.
Qed.

(* the augmented matrix (A_ | b_) *)
Definition aug (n : N) (MA MB : fm) : fm := fun a b => if b <? n then MA a b else MB a (b - n).

Definition ffs_inv (n s : N) (G0 : fm) (i : N) (st : list qx * list qx) : Prop :=
  let (am, bm) := st in
  exists MA MB d, repr am n n MA /\ repr bm n s MB /\
    row_equiv n (n + s) G0 (aug n MA MB) /\
    d <> 0%Qc /\ (i = 0 -> d = 1%Qc) /\
    (forall a k, a < n -> k < i -> MA a k = if a =? k then d else 0%Qc).

(* the elimination is stuck at column i: no pivot at or below the diagonal *)
Definition ffs_stuck (n s : N) (G0 : fm) (i : N) : Prop :=
  exists MA MB d, row_equiv n (n + s) G0 (aug n MA MB) /\ d <> 0%Qc /\
    (forall a k, a < n -> k < i -> MA a k = if a =? k then d else 0%Qc) /\
    (forall t, i <= t -> t < n -> MA t i = 0%Qc).

(* the exchange of the pivot row p >= i with row i.  In A_ only the columns >= i are
   exchanged; that is the whole row exchange, because left of column i both rows are zero *)
Lemma ffs_exchange am bm n s MA MB d i p :
  repr am n n MA -> repr bm n s MB -> i < n -> p < n -> i <= p ->
  (forall a k, a < n -> k < i -> MA a k = if a =? k then d else 0%Qc) ->
  exists am1 bm1,
    (if p =? i then Ok (am, bm) else
     do am0 <- ffs_swap_a n i p am; do bm0 <- row_exchange bm s p i; Ok (am0, bm0))
    = Ok (am1, bm1) /\ repr am1 n n (fm_swap p i MA) /\ repr bm1 n s (fm_swap p i MB).
Proof.
  intros HRa HRb Hi Hpn Hip Hdiag.
  destruct (N.eqb_spec p i) as [->|npi].
  - exists am, bm. split; [reflexivity|]. split.
    + apply (repr_ext am n n MA _ HRa). intros a b _ _. unfold fm_swap. ffj_cases; reflexivity.
    + apply (repr_ext bm n s MB _ HRb). intros a b _ _. unfold fm_swap. ffj_cases; reflexivity.
  - destruct (ffs_swap_a_spec am n MA i p HRa Hi Hpn npi) as (am1 & E1 & HR1).
    rewrite E1. cbn [bind].
    destruct (repr_swap bm n s MB p i HRb Hpn Hi npi) as (bm1 & E2 & HR2).
    rewrite E2. cbn [bind].
    exists am1, bm1. split; [reflexivity|]. split; [|assumption].
    apply (repr_ext am1 n n _ _ HR1). intros a b Ha Hb.
    destruct (N.leb_spec i b); [reflexivity|]. unfold fm_swap.
    ffj_cases; try reflexivity; rewrite !Hdiag by lia; ffj_cases; reflexivity.
Qed.

Lemma ffs_step n s G0 i st :
  i < n -> ffs_inv n s G0 i st ->
  (exists st', ffs_body n s i st = Ok st' /\ ffs_inv n s G0 (i + 1) st') \/
  (ffs_body n s i st = ErrExn EXN_RANKDEF /\ ffs_stuck n s G0 i).
Proof.
  destruct st as [am bm]. intros Hi (MA & MB & d & HRa & HRb & HE & Hd & Hd1 & Hdiag).
  unfold ffs_body.
  set (dx := Fin d).
  assert (Hdopt : (if 0 <? i then do d0 <- rd am (i * n - n + i - 1); Ok (Some d0) else Ok None)
                  = Ok (if i =? 0 then None else Some dx)).
  { destruct (N.ltb_spec 0 i).
    - destruct (N.eqb_spec i 0); [lia|].
      replace (i * n - n + i - 1) with ((i - 1) * n + (i - 1)) by nia.
      rewrite (repr_rd am n n MA HRa) by lia. cbn [bind].
      rewrite Hdiag by lia. rewrite N.eqb_refl. reflexivity.
    - destruct (N.eqb_spec i 0); [reflexivity | lia]. }
  rewrite Hdopt. cbn [bind].
  assert (Hdc : dcond i dx d).
  { split; [assumption|]. destruct (N.eqb_spec i 0); [auto | reflexivity]. }
  destruct (ffgj_find_spec am n MA i i HRa Hi ltac:(lia)) as (p & Ep & Hp & Hz & Hnz).
  rewrite Ep. cbn [bind].
  destruct (N.eq_dec p n) as [->|npn].
  - right. split.
    + rewrite N.eqb_refl. reflexivity.
    + exists MA, MB, d. split; [assumption|]. split; [assumption|]. split; [assumption|].
      intros t Ht1 Ht2. apply Hz. lia.
  - left. assert (Hpn : p < n) by lia. specialize (Hnz Hpn).
    destruct (N.eqb_spec p n) as [?|_]; [contradiction|].
    destruct (ffs_exchange am bm n s MA MB d i p HRa HRb Hi Hpn (proj1 Hp) Hdiag)
      as (am1 & bm1 & Esw & HRa1 & HRb1). rewrite Esw. cbn [bind].
    assert (Hdiag1 : forall a k, a < n -> k < i ->
              fm_swap p i MA a k = if a =? k then d else 0%Qc).
    { intros a k Ha Hk. unfold fm_swap.
      ffj_cases; rewrite Hdiag by lia; ffj_cases; reflexivity. }
    pose proof (fm_swap_snd p i MA i) as Hp1.
    set (MA1 := fm_swap p i MA) in *. set (MB1 := fm_swap p i MB) in *.
    destruct (ffs_rows_spec am1 bm1 n s MA1 MB1 i dx d HRa1 HRb1 Hi Hdc)
      as (am2 & bm2 & E2 & HRa2 & HRb2).
    rewrite E2. cbn [bind].
    destruct (ffj_zero_spec am2 n n _ i i HRa2 Hi) as (am3 & E3 & HRa3).
    rewrite E3. cbn [bind].
    exists (am3, bm2). split; [reflexivity|].
    exists (fm_ffjelim i i d MA1),
           (fun a b => if a =? i then MB1 a b
                       else ((MA1 i i * MB1 a b - MA1 a i * MB1 i b) / d)%Qc),
           (MA1 i i).
    split; [|split; [|split; [|split; [|split]]]].
    + apply (repr_ext am3 n n _ _ HRa3). intros a b _ _. unfold fm_ffjrows, fm_ffjelim.
      ffj_cases; try reflexivity. field. assumption.
    + exact HRb2.
    + eapply re_trans; [exact HE|].
      eapply re_trans; [apply (re_swap n (n + s) _ p i Hpn Hi)|].
      eapply re_trans.
      * apply (fm_ffjelim_equiv n (n + s) i i d); [assumption | assumption |].
        unfold fm_swap, aug. ffj_cases; assumption.
      * apply re_refl. intros a b _ _. unfold MA1, MB1, fm_ffjelim, fm_swap, aug.
        clear - Hi. ffj_cases; reflexivity.
    + rewrite Hp1. assumption.
    + lia.
    + intros a k Ha Hk. unfold fm_ffjelim.
      destruct (N.eqb_spec a i) as [->|nai].
      * destruct (N.eqb_spec i k) as [<-|nik]; [reflexivity|].
        rewrite Hdiag1 by lia. destruct (N.eqb_spec i k); [contradiction | reflexivity].
      * destruct (N.eq_dec k i) as [->|nki].
        -- destruct (N.eqb_spec a i); [contradiction|]. field. assumption.
        -- rewrite (Hdiag1 a k), (Hdiag1 i k) by lia.
           destruct (N.eqb_spec i k); [lia|].
           destruct (N.eqb_spec a k); field; assumption.
Qed.

Lemma ffs_inv_init A b n s :
  good A n n -> good b n s -> ffs_inv n s (aug n (fm_of A) (fm_of b)) 0 (dm A, dm b).
Proof.
  intros HGA HGb. exists (fm_of A), (fm_of b), 1%Qc.
  split; [now apply good_repr|]. split; [now apply good_repr|]. split.
  - apply re_refl. intros a c _ _. reflexivity.
  - split; [exact Q_apart_0_1|]. split; [reflexivity|]. intros; lia.
Qed.

(* (X ; -I): the (n + s) x s matrix with X on top of minus the identity *)
Definition zext (n : N) (X : fm) : fm :=
  fun t j => if t <? n then X t j else if t - n =? j then (- (1))%Qc else 0%Qc.

Lemma aug_mul n s MA MB X a j :
  j < s -> fm_mul (n + s) (aug n MA MB) (zext n X) a j = (fm_mul n MA X a j - MB a j)%Qc.
Proof.
  intros Hj. unfold fm_mul.
  transitivity (sumN n (fun k => MA a k * X k j) +
                sumN s (fun k => MB a k * (if k =? j then - (1) else 0)))%Qc.
  - rewrite (sumN_split (n + s) n) by lia. replace (n + s - n) with s by lia.
    f_equal; apply sumN_ext; intros k Hk; unfold aug, zext.
    + ffj_cases; reflexivity.
    + replace (n + k - n) with k by lia. ffj_cases; reflexivity.
  - rewrite (sumN_single s _ j Hj).
    + rewrite N.eqb_refl. ring.
    + intros k Hk Hkj. destruct (N.eqb_spec k j); [contradiction | ring].
Qed.

(* A is non-singular: A y = 0 only for y = 0 *)
Definition nonsingular (n : N) (A : fm) : Prop :=
  forall y, null_sol n n 1 A y -> forall k, k < n -> y k 0 = 0%Qc.

Lemma row_equiv_cols r c c' A B : row_equiv r c A B -> c' <= c -> row_equiv r c' A B.
Proof.
  intros H Hc.
  induction H as [A B HE | A a b Ha Hb | A a k Ha Hk | A a b k Ha Hb Hab | A B C _ IH1 _ IH2].
  - apply re_refl. intros i j Hi Hj. apply HE; lia.
  - now apply re_swap.
  - now apply re_scale.
  - now apply re_addrow.
  - eapply re_trans; eassumption.
Qed.

Lemma aug_left_equiv n s A0 B0 MA MB :
  row_equiv n (n + s) (aug n A0 B0) (aug n MA MB) -> row_equiv n n A0 MA.
Proof.
  intros H. apply (row_equiv_cols n (n + s) n) in H; [|lia].
  eapply re_trans; [apply re_refl | eapply re_trans; [exact H | apply re_refl]].
  - intros a b _ Hb. unfold aug. destruct (N.ltb_spec b n); [reflexivity | lia].
  - intros a b _ Hb. unfold aug. destruct (N.ltb_spec b n); [reflexivity | lia].
Qed.

(* a column without pivot exhibits a non-zero solution of A y = 0 *)
Lemma ffs_stuck_singular n s A0 B0 i :
  i < n -> ffs_stuck n s (aug n A0 B0) i -> ~ nonsingular n A0.
Proof.
  intros Hi (MA & MB & d & HE & Hd & Hdiag & Hz) Hns.
  apply aug_left_equiv in HE.
  pose (y := fun (t _ : N) => if t <? i then (- MA t i)%Qc else if t =? i then d else 0%Qc).
  assert (Hn : null_sol n n 1 MA y).
  { intros a j Ha Hj. unfold fm_mul. cbv beta.
    rewrite (sumN_ext n _ (fun k => (if k =? i then MA a i * d else 0) +
                                    (if (k <? i) && (a =? k) then - (d * MA a i) else 0))%Qc).
    2:{ intros k Hk. unfold y. destruct (N.ltb_spec k i).
        - rewrite Hdiag by lia. destruct (N.eqb_spec k i); [lia|]. cbn [andb].
          destruct (N.eqb_spec a k); [subst; ring | ring].
        - destruct (N.eqb_spec k i); cbn [andb]; [subst; ring | ring]. }
    rewrite sumN_plus. rewrite (sumN_single n _ i Hi).
    2:{ intros k _ Hk. destruct (N.eqb_spec k i); [contradiction | reflexivity]. }
    rewrite N.eqb_refl.
    destruct (N.ltb_spec a i) as [Hai|Hai].
    - rewrite (sumN_single n _ a Ha).
      2:{ intros k _ Hk. destruct (N.eqb_spec a k); [congruence|]. now rewrite andb_false_r. }
      destruct (N.ltb_spec a i); [|lia]. rewrite N.eqb_refl. cbn [andb]. ring.
    - rewrite sumN_zero.
      2:{ intros k Hk. destruct (N.ltb_spec k i); cbn [andb]; [|reflexivity].
          destruct (N.eqb_spec a k); [lia | reflexivity]. }
      rewrite Hz by assumption. ring. }
  apply (proj2 (row_equiv_null_sol n n _ _ HE 1 y)) in Hn.
  specialize (Hns y Hn i Hi). unfold y in Hns.
  destruct (N.ltb_spec i i); [lia|]. rewrite N.eqb_refl in Hns. contradiction.
Qed.

(* when every column had its pivot, A is row equivalent to d * I *)
Lemma ffs_done_nonsingular n s A0 B0 st : ffs_inv n s (aug n A0 B0) n st -> nonsingular n A0.
Proof.
  destruct st as [am bm]. intros (MA & MB & d & _ & _ & HE & Hd & _ & Hdiag).
  apply aug_left_equiv in HE.
  intros y Hy k Hk.
  apply (proj1 (row_equiv_null_sol n n _ _ HE 1 y)) in Hy.
  specialize (Hy k 0 Hk ltac:(lia)). cbv beta in Hy. unfold fm_mul in Hy.
  rewrite (sumN_single n _ k Hk) in Hy.
  - rewrite Hdiag in Hy by lia. rewrite N.eqb_refl in Hy.
    apply Qcmult_integral in Hy. destruct Hy; [contradiction | assumption].
  - intros t Ht Htk. rewrite Hdiag by lia. destruct (N.eqb_spec k t); [congruence | ring].
Qed.

(* a loop whose body may throw: either every iteration succeeds (invariant) or the first
   throwing iteration ends the loop with that exception *)
Lemma for_up_inv_exn {St} (P : N -> St -> Prop) (Q : Prop) c n i (body : N -> St -> res St) s :
  P i s ->
  (forall k s, i <= k < i + N.of_nat n -> P k s ->
     (exists s', body k s = Ok s' /\ P (k + 1) s') \/ (body k s = ErrExn c /\ Q)) ->
  (exists s', for_up n i body s = Ok s' /\ P (i + N.of_nat n) s')
  \/ (for_up n i body s = ErrExn c /\ Q).
Proof.
  revert i s. induction n as [|n IH]; intros i s H0 Hstep.
  - left. exists s. split; [reflexivity|]. now replace (i + N.of_nat 0) with i by lia.
  - destruct (Hstep i s ltac:(lia) H0) as [(s1 & E1 & P1) | [E1 HQ]].
    + destruct (IH (i + 1) s1 P1) as [(s2 & E2 & P2) | [E2 HQ]].
      { intros k s' Hk. apply Hstep. lia. }
      * left. exists s2. split; [rewrite for_up_S, E1; exact E2|].
        now replace (i + N.of_nat (S n)) with (i + 1 + N.of_nat n) by lia.
      * right. split; [rewrite for_up_S, E1; exact E2 | exact HQ].
    + right. split; [rewrite for_up_S, E1; reflexivity | exact HQ].
Qed.

Lemma ffs_loop_dichotomy A b n s :
  good A n n -> good b n s ->
  (exists st, for_range 0 n (ffs_body n s) (dm A, dm b) = Ok st /\
     ffs_inv n s (aug n (fm_of A) (fm_of b)) n st)
  \/ (for_range 0 n (ffs_body n s) (dm A, dm b) = ErrExn EXN_RANKDEF /\
      ~ nonsingular n (fm_of A)).
Proof.
  intros HGA HGb. unfold for_range.
  destruct (for_up_inv_exn (ffs_inv n s (aug n (fm_of A) (fm_of b))) (~ nonsingular n (fm_of A))
              EXN_RANKDEF (N.to_nat (n - 0)) 0 (ffs_body n s) (dm A, dm b))
    as [(st & E & Hinv) | H].
  - now apply ffs_inv_init.
  - intros k s0 Hk Hinv. assert (Hkn : k < n) by lia.
    destruct (ffs_step n s _ k s0 Hkn Hinv) as [H | [E Hst]]; [left; exact H|].
    right. split; [exact E|]. exact (ffs_stuck_singular n s _ _ k Hkn Hst).
  - left. exists st. split; [exact E|].
    now replace n with (0 + N.of_nat (N.to_nat (n - 0))) at 3 by lia.
  - right. exact H.
Qed.

(* since the repair 093e8f2 the solver never leaves its vectors: it returns the solution of
   a non-singular system and throws "Matrix is rank deficient" otherwise *)
Theorem ffgj_solve_dichotomy A b x n s :
  good A n n -> good b n s -> wf x -> drow x = n -> dcol x = s ->
  (exists x', fraction_free_gauss_jordan_solve A b x true = Ok x' /\
     good x' n s /\ fm_eq n s (fm_mul n (fm_of A) (fm_of x')) (fm_of b))
  \/ (fraction_free_gauss_jordan_solve A b x true = ErrExn EXN_RANKDEF /\
      ~ nonsingular n (fm_of A)).
Proof.
  intros HGA HGb Wx Hrx Hcx. rewrite ffs_unfold.
  pose proof HGA as (_ & _ & _ & HcA). pose proof HGb as (_ & _ & _ & Hcb). rewrite HcA, Hcb.
  destruct (ffs_loop_dichotomy A b n s HGA HGb)
    as [([am bm] & E1 & MA & MB & d & HRa & HRb & HE & Hd & _ & Hdiag) | [E1 Hs]]; rewrite E1.
  2:{ right. split; [reflexivity | exact Hs]. }
  left. cbn [bind].
  assert (Hdd : forall a, a < n -> MA a a = d).
  { intros a Ha. rewrite Hdiag by lia. now rewrite N.eqb_refl. }
  destruct (diag_div_spec am bm (dm x) n s MA MB HRa HRb) as (xm & Ex & HRx).
  { unfold wf in Wx. now rewrite Wx, Hrx, Hcx. }
  { intros a Ha. now rewrite Hdd. }
  rewrite Ex. cbn [bind]. exists (setm x xm). split; [reflexivity|].
  apply (repr_ext _ _ _ _ (fun a c => (MB a c / d)%Qc)) in HRx.
  2:{ intros a c Ha _. now rewrite Hdd. }
  destruct (repr_good xm n s _ x HRx Hrx Hcx) as [HGx HFx]. split; [assumption|].
  (* (X ; -I) is in the null space of (d I | MB), hence of (A | b) *)
  set (X := fun a b : N => (MB a b / d)%Qc) in *.
  pose proof (row_equiv_null_sol n (n + s) _ _ HE s (zext n X)) as [_ Hback].
  assert (Hn : null_sol n (n + s) s (aug n MA MB) (zext n X)).
  { intros a j Ha Hj. rewrite aug_mul by assumption.
    unfold fm_mul. rewrite (sumN_single n _ a Ha).
    - rewrite Hdiag by lia. rewrite N.eqb_refl. unfold X. field. assumption.
    - intros k Hk Hka. rewrite Hdiag by lia. destruct (N.eqb_spec a k); [congruence | ring]. }
  specialize (Hback Hn). intros a j Ha Hj. specialize (Hback a j Ha Hj). cbv beta in Hback.
  rewrite aug_mul in Hback by assumption.
  transitivity (fm_mul n (fm_of A) X a j).
  - apply fm_mul_ext; intros k Hk; [reflexivity | symmetry; now apply HFx].
  - rewrite <- (Qcplus_0_r (fm_of b a j)), <- Hback. ring.
Qed.

(* an Ok result means that A is non-singular *)
Theorem ffgj_solve_ok_nonsingular A b x n s x' :
  good A n n -> good b n s ->
  fraction_free_gauss_jordan_solve A b x true = Ok x' -> nonsingular n (fm_of A).
Proof.
  intros HGA HGb E. rewrite ffs_unfold in E.
  pose proof HGA as (_ & _ & _ & HcA). pose proof HGb as (_ & _ & _ & Hcb).
  rewrite HcA, Hcb in E.
  destruct (ffs_loop_dichotomy A b n s HGA HGb) as [(st & _ & Hinv) | [E1 _]].
  - exact (ffs_done_nonsingular n s _ _ st Hinv).
  - rewrite E1 in E. discriminate.
Qed.

Definition igj_init (n : N) (bm0 : list qx) : res (list qx * list qx) :=
  for_range 0 n (fun i (st : list qx * list qx) =>
    for_range 0 n (fun j (st : list qx * list qx) =>
      let (em, bm) := st in
      do em <- wr em (i * n + j) (if j =? i then x1 else x0);
      do bm <- wr bm (i * n + j) x0;
      Ok (em, bm)) st) (repeat x0 (N.to_nat (n * n)), bm0).

Lemma igj_unfold A B :
  inverse_gauss_jordan A B =
  do st <- igj_init (drow A) (dm B);
  fraction_free_gauss_jordan_solve A (mkmat (drow A) (drow A) (fst st)) (setm B (snd st)) true.
Proof. reflexivity. Qed.

Lemma igj_init_spec n bm0 :
  lenN bm0 = n * n ->
  exists em bm, igj_init n bm0 = Ok (em, bm) /\ repr em n n fm_id /\ lenN bm = n * n.
Proof.
  intros HL0. unfold igj_init.
  (* before the cell (i, j): the cells before it in row-major order hold the identity *)
  pose (F := fun (i j a b : N) =>
    if (a <? i) || ((a =? i) && (b <? j)) then fm_id a b else 0%Qc).
  pose (P := fun (i j : N) (st : list qx * list qx) =>
    repr (fst st) n n (F i j) /\ lenN (snd st) = n * n).
  destruct (for_range_inv (fun i => P i 0) 0 n (fun i (st : list qx * list qx) =>
    for_range 0 n (fun j (st : list qx * list qx) =>
      let (em, bm) := st in
      do em <- wr em (i * n + j) (if j =? i then x1 else x0);
      do bm <- wr bm (i * n + j) x0;
      Ok (em, bm)) st) (repeat x0 (N.to_nat (n * n)), bm0)) as ([em bm] & E & HR & HL).
  - lia.
  - unfold P. cbn [fst snd]. split; [|exact HL0]. split; [rewrite lenN_repeat; lia|].
    intros a b _ _. unfold ent. rewrite nthx_repeat. unfold F. clear. ffj_cases; reflexivity.
  - intros i st [_ Hi] HP.
    destruct (for_range_inv (P i) 0 n (fun j (st : list qx * list qx) =>
      let (em, bm) := st in
      do em <- wr em (i * n + j) (if j =? i then x1 else x0);
      do bm <- wr bm (i * n + j) x0;
      Ok (em, bm)) st) as (st' & E' & HR' & HL'); [lia | exact HP | |].
    + intros j [em1 bm1] [_ Hj] [HR1 HL1]. cbn [fst snd] in *.
      replace (if j =? i then x1 else x0) with (Fin (fm_id i j))
        by (unfold fm_id; rewrite (N.eqb_sym j i); destruct (i =? j); reflexivity).
      destruct (repr_wr em1 n n (F i j) (F i (j + 1)) i j (fm_id i j) HR1 Hi Hj) as (em2 & E2 & HR2).
      { intros a b _ _. unfold fm_set, F. clear. ffj_cases; reflexivity. }
      rewrite E2. cbn [bind]. rewrite wr_ok by (rewrite HL1; apply idx_lt; lia). cbn [bind].
      eexists; split; [reflexivity|]. split; [exact HR2 | cbn [snd]; now rewrite lenN_upd].
    + exists st'. split; [exact E'|]. split; [|exact HL'].
      apply (repr_ext _ _ _ _ _ HR'). intros a b _ Hb. unfold F. clear - Hb. ffj_cases; reflexivity.
  - exists em, bm. split; [exact E|]. split; [|exact HL].
    apply (repr_ext _ _ _ _ _ HR). intros a b Ha _. unfold F. clear - Ha. ffj_cases; reflexivity.
Qed.

(* inverse_gauss_jordan is the solver applied to the identity *)
Lemma igj_as_solve A B n :
  good A n n -> wf B -> drow B = n -> dcol B = n ->
  exists e B0, inverse_gauss_jordan A B = fraction_free_gauss_jordan_solve A e B0 true /\
    good e n n /\ fm_eq n n fm_id (fm_of e) /\ wf B0 /\ drow B0 = n /\ dcol B0 = n.
Proof.
  intros HGA WB HrB HcB. rewrite igj_unfold. pose proof HGA as (_ & _ & HrA & _). rewrite HrA.
  destruct (igj_init_spec n (dm B)) as (em & bm & Ei & HRe & HLb).
  { unfold wf in WB. now rewrite WB, HrB, HcB. }
  rewrite Ei. cbn [bind fst snd].
  destruct (repr_good em n n fm_id (mkmat n n em) HRe eq_refl eq_refl) as [HGe Hfe].
  exists (mkmat n n em), (setm B bm). split; [reflexivity|]. split; [exact HGe|].
  split; [exact Hfe|]. split; [|split; assumption].
  unfold wf, setm. cbn [dm drow dcol]. now rewrite HLb, HrB, HcB.
Qed.

Theorem inverse_gauss_jordan_dichotomy A B n :
  good A n n -> wf B -> drow B = n -> dcol B = n ->
  (exists B', inverse_gauss_jordan A B = Ok B' /\
     good B' n n /\ fm_eq n n (fm_mul n (fm_of A) (fm_of B')) fm_id)
  \/ (inverse_gauss_jordan A B = ErrExn EXN_RANKDEF /\ ~ nonsingular n (fm_of A)).
Proof.
  intros HGA WB HrB HcB.
  destruct (igj_as_solve A B n HGA WB HrB HcB) as (e & B0 & -> & HGe & Hfe & WB0 & Hr0 & Hc0).
  destruct (ffgj_solve_dichotomy A e B0 n n HGA HGe WB0 Hr0 Hc0)
    as [(B' & E & GB' & Hm) | H]; [left | right; exact H].
  exists B'. split; [exact E|]. split; [exact GB'|].
  intros i j Hi Hj. rewrite (Hm i j Hi Hj). symmetry. now apply Hfe.
Qed.

Theorem inverse_gauss_jordan_total A B n :
  good A n n -> wf B -> drow B = n -> dcol B = n -> nonsingular n (fm_of A) ->
  exists B', inverse_gauss_jordan A B = Ok B' /\
    good B' n n /\ fm_eq n n (fm_mul n (fm_of A) (fm_of B')) fm_id.
Proof.
  intros HGA WB HrB HcB Hns.
  destruct (inverse_gauss_jordan_dichotomy A B n HGA WB HrB HcB) as [H | [_ Hs]];
    [exact H | contradiction].
Qed.
