(* C24 -- the unpivoted fraction-free (Bareiss) routines, part 1: what the loops compute.
   fraction_free_LU, fraction_free_gaussian_elimination and forward_substitution are total
   on vectors of the right length, whatever the entries are (numbers, zoo, nan): their
   results are described exactly by iterating a step function on matrices of entries
   (N -> N -> qx).  No arithmetic side condition appears here; the meaning over Q, under the
   guard "no pivot is zero", is in DenseFF2.v. *)
From SE Require Import C24.DenseModel C24.DenseBase C24.DenseSpec C24.DenseOps.
From Coq Require Import Lia ZifyBool ZifyNat ZifyN.
Local Open Scope N_scope.
Local Open Scope res_scope.

Fixpoint iter_nat {T} (t : nat) (f : N -> T -> T) (x : T) : T :=
  match t with O => x | S t' => f (N.of_nat t') (iter_nat t' f x) end.
(* f (i-1) (... (f 1 (f 0 x))) *)
Definition iterU {T} (i : N) (f : N -> T -> T) (x : T) : T := iter_nat (N.to_nat i) f x.

Lemma iterU_0 {T} (f : N -> T -> T) x : iterU 0 f x = x.
Proof. reflexivity. Qed.

Lemma iterU_succ {T} i (f : N -> T -> T) x : iterU (i + 1) f x = f i (iterU i f x).
Proof.
  unfold iterU. replace (N.to_nat (i + 1)) with (S (N.to_nat i)) by lia.
  cbn [iter_nat]. now rewrite N2Nat.id.
Qed.

(* a loop whose body implements f on a representation *)
Lemma for_range_iter {St T} (R : St -> T -> Prop) b (body : N -> St -> res St)
      (f : N -> T -> T) s0 x0 :
  R s0 x0 ->
  (forall i s x, i < b -> R s x -> exists s', body i s = Ok s' /\ R s' (f i x)) ->
  exists s', for_range 0 b body s0 = Ok s' /\ R s' (iterU b f x0).
Proof.
  intros H0 Hstep.
  destruct (for_range_inv (fun i s => R s (iterU i f x0)) 0 b body s0) as (s' & E & HP).
  - lia.
  - exact H0.
  - intros k s [_ Hk] HR. destruct (Hstep k s _ Hk HR) as (s' & E & HR').
    exists s'. split; [exact E|]. now rewrite iterU_succ.
  - exists s'. split; assumption.
Qed.

(* an entry that no later step changes keeps its value *)
Lemma iterU_stable {V} (step : N -> (N -> N -> V) -> (N -> N -> V)) a b t0 :
  (forall t X, t0 <= t -> step t X a b = X a b) ->
  forall t X, t0 <= t -> iterU t step X a b = iterU t0 step X a b.
Proof.
  intros H t X. induction t as [|t IH] using N.peano_ind; intros Hle.
  - replace t0 with 0 by lia. reflexivity.
  - rewrite <- N.add_1_r in *. destruct (N.eq_dec t0 (t + 1)) as [->|ne]; [reflexivity|].
    rewrite iterU_succ, H by lia. apply IH. lia.
Qed.

Definition xmat := N -> N -> qx.

(* the vectors are followed through [holds m r c X] (DenseOps.v): m is the r x c array X *)
Lemma holds_self m r c : lenN m = r * c -> holds m r c (ent m c).
Proof. intros HL. split; [assumption | reflexivity]. Qed.

Lemma holds_set m r c (X : xmat) a b v :
  holds m r c X -> a < r -> b < c ->
  exists m', wr m (a * c + b) v = Ok m' /\
    holds m' r c (fun a' b' => if (a' =? a) && (b' =? b) then v else X a' b').
Proof. intros H Ha Hb. apply (holds_wr m r c X _ a b v H Ha Hb). reflexivity. Qed.

(* the fraction-free update of an entry y_j with pivot p_ii, multiplier p_ji, previous
   pivot dprev and the entry y_i of the pivot row: (p_ii y_j - p_ji y_i) [/ dprev if i > 0] *)
Definition xcell (i : N) (pii pji dprev yj yi : qx) : qx :=
  let v := xsub (xmul pii yj) (xmul pji yi) in if 0 <? i then xdiv v dprev else v.

(* how both cell updates below end: the numerator is stored, then (from the second stage on)
   read back, divided by the previous pivot, read by [rdprev], and stored again *)
Lemma cell_store bm r c Y i j k v d (rdprev : list qx -> res qx) :
  holds bm r c Y -> j < r -> k < c ->
  (0 < i -> forall m, holds m r c (fun a b => if (a =? j) && (b =? k) then v else Y a b) ->
            rdprev m = Ok d) ->
  exists bm',
    (do m <- wr bm (j * c + k) v;
     if 0 <? i then do v' <- rd m (j * c + k); do d' <- rdprev m; wr m (j * c + k) (xdiv v' d')
     else Ok m) = Ok bm' /\
    holds bm' r c (fun a b => if (a =? j) && (b =? k)
                              then (if 0 <? i then xdiv v d else v) else Y a b).
Proof.
  intros HY Hj Hk Hd.
  destruct (holds_set bm r c Y j k v HY Hj Hk) as (m1 & E1 & H1). rewrite E1. cbn [bind].
  destruct (N.ltb_spec 0 i) as [Hpos|_]; [|exists m1; split; [reflexivity | exact H1]].
  rewrite (holds_rd m1 r c _ H1 j k Hj Hk). cbn [bind]. rewrite !N.eqb_refl. cbn [andb].
  rewrite (Hd Hpos m1 H1). cbn [bind].
  destruct (holds_set m1 r c _ j k (xdiv v d) H1 Hj Hk) as (m2 & E2 & H2).
  exists m2. split; [exact E2|].
  apply (holds_ext _ _ _ _ _ H2). intros a b _ _. cbv beta. now destruct ((a =? j) && (b =? k)).
Qed.

(* the cell update inside the matrix itself (fraction_free_LU,
   fraction_free_gaussian_elimination, the second inner loop of
   fraction_free_gaussian_elimination_solve) *)
Definition ff_cell (col i j k : N) (m : list qx) : res (list qx) :=
  do bii <- rd m (i * col + i);
  do bjk <- rd m (j * col + k);
  do bji <- rd m (j * col + i);
  do bik <- rd m (i * col + k);
  do m <- wr m (j * col + k) (xsub (xmul bii bjk) (xmul bji bik));
  if 0 <? i then
    do v <- rd m (j * col + k);
    do d <- rd m (i * col - col + i - 1);
    wr m (j * col + k) (xdiv v d)
  else Ok m.

Lemma ff_cell_spec m r c X i j k :
  holds m r c X -> i < j -> j < r -> i < c -> k < c ->
  exists m', ff_cell c i j k m = Ok m' /\
    holds m' r c (fun a b => if (a =? j) && (b =? k)
                             then xcell i (X i i) (X j i) (X (i - 1) (i - 1)) (X j k) (X i k)
                             else X a b).
Proof.
  intros HX Hij Hj Hi Hk. unfold ff_cell.
  rewrite (holds_rd m r c X HX i i) by lia. cbn [bind].
  rewrite (holds_rd m r c X HX j k) by lia. cbn [bind].
  rewrite (holds_rd m r c X HX j i) by lia. cbn [bind].
  rewrite (holds_rd m r c X HX i k) by lia. cbn [bind].
  apply (cell_store m r c X i j k _ (X (i - 1) (i - 1)) (fun m => rd m (i * c - c + i - 1)) HX Hj Hk).
  intros Hpos m1 H1. replace (i * c - c + i - 1) with ((i - 1) * c + (i - 1)) by nia.
  rewrite (holds_rd m1 r c _ H1 (i - 1) (i - 1)) by lia.
  destruct (N.eqb_spec (i - 1) j); [lia | reflexivity].
Qed.

(* row j, columns > i *)
Definition ff_krow (col i j : N) (m : list qx) : res (list qx) :=
  for_range (i + 1) col (fun k m => ff_cell col i j k m) m.

Definition xrow_step (i j : N) (X : xmat) : xmat :=
  fun a b => if (a =? j) && (i <? b)
             then xcell i (X i i) (X j i) (X (i - 1) (i - 1)) (X j b) (X i b)
             else X a b.

Lemma ff_krow_spec m r c X i j :
  holds m r c X -> i < j -> j < r -> i < c ->
  exists m', ff_krow c i j m = Ok m' /\ holds m' r c (xrow_step i j X).
Proof.
  intros HX Hij Hj Hi. unfold ff_krow.
  apply (holds_loop r c
           (fun t a b => if (a =? j) && ((i <? b) && (b <? t))
                         then xcell i (X i i) (X j i) (X (i - 1) (i - 1)) (X j b) (X i b)
                         else X a b) X _ (i + 1) c _ m ltac:(lia) HX).
  - intros a b Ha Hb. ffj_cases; reflexivity.
  - intros t s [Ht1 Ht2] Hs.
    destruct (ff_cell_spec s r c _ i j t Hs Hij Hj Hi Ht2) as (s' & E' & Hs').
    exists s'. split; [exact E'|].
    apply (holds_ext _ _ _ _ _ Hs'). intros a b Ha Hb. cbv beta. ffj_cases; reflexivity.
  - intros a b Ha Hb. unfold xrow_step. ffj_cases; reflexivity.
Qed.

(* stage i of fraction_free_LU: rows and columns > i; column i keeps the multipliers *)
Definition xlu_step (i : N) (X : xmat) : xmat :=
  fun a b => if (i <? a) && (i <? b)
             then xcell i (X i i) (X a i) (X (i - 1) (i - 1)) (X a b) (X i b)
             else X a b.

Lemma ff_lu_rows_spec m r c X i :
  holds m r c X -> i < r -> i < c ->
  exists m', for_range (i + 1) r (fun j m => ff_krow c i j m) m = Ok m' /\
    holds m' r c (xlu_step i X).
Proof.
  intros HX Hir Hi.
  apply (holds_loop r c
           (fun t a b => if ((i <? a) && (a <? t)) && (i <? b)
                         then xcell i (X i i) (X a i) (X (i - 1) (i - 1)) (X a b) (X i b)
                         else X a b) X _ (i + 1) r _ m ltac:(lia) HX).
  - intros a b Ha Hb. ffj_cases; reflexivity.
  - intros t s [Ht1 Ht2] Hs.
    destruct (ff_krow_spec s r c _ i t Hs ltac:(lia) Ht2 Hi) as (s' & E' & Hs').
    exists s'. split; [exact E'|].
    apply (holds_ext _ _ _ _ _ Hs'). intros a b Ha Hb. unfold xrow_step. ffj_cases; reflexivity.
  - intros a b Ha Hb. unfold xlu_step. ffj_cases; reflexivity.
Qed.

Lemma fflu_unfold A LU :
  fraction_free_LU A LU =
  if drow A =? 0 then ErrExn EXN_EMPTY else
  do m <- for_range 0 (drow A - 1) (fun i m =>
            for_range (i + 1) (drow A) (fun j m => ff_krow (drow A) i j m) m) (dm A);
  Ok (setm LU m).
Proof. reflexivity. Qed.

(* fraction_free_LU on a vector of n * n entries, n > 0: total; the result is the (n-1)-th
   iterate of xlu_step *)
Theorem fflu_run A LU n :
  lenN (dm A) = n * n -> drow A = n -> 0 < n ->
  exists m, fraction_free_LU A LU = Ok (setm LU m) /\
    holds m n n (iterU (n - 1) xlu_step (ent (dm A) n)).
Proof.
  intros HL Hr Hn. rewrite fflu_unfold, Hr.
  destruct (N.eqb_spec n 0); [lia|].
  destruct (for_range_iter (fun s X => holds s n n X) (n - 1)
              (fun i m => for_range (i + 1) n (fun j m => ff_krow n i j m) m)
              xlu_step (dm A) (ent (dm A) n)) as (m & E & Hm).
  - now apply holds_self.
  - intros i s X Hi HX. apply ff_lu_rows_spec; [assumption | lia | lia].
  - exists m. rewrite E. split; [reflexivity | assumption].
Qed.

(* stage i of fraction_free_gaussian_elimination: as above, and column i is cleared *)
Definition xge_step (i : N) (X : xmat) : xmat :=
  fun a b => if i <? a
             then (if i <? b then xcell i (X i i) (X a i) (X (i - 1) (i - 1)) (X a b) (X i b)
                   else if b =? i then x0 else X a b)
             else X a b.

Lemma ff_ge_rows_spec m r c X i :
  holds m r c X -> i < c ->
  exists m', for_range (i + 1) r (fun j m => do m <- ff_krow c i j m; wr m (j * c + i) x0) m = Ok m' /\
    holds m' r c (xge_step i X).
Proof.
  intros HX Hi.
  destruct (N.le_gt_cases r (i + 1)) as [Hle|Hgt].
  { rewrite for_range_nop by assumption. exists m. split; [reflexivity|].
    apply (holds_ext _ _ _ _ _ HX). intros a b Ha Hb. unfold xge_step. ffj_cases; reflexivity. }
  apply (holds_loop r c
           (fun t a b => if (i <? a) && (a <? t)
                         then (if i <? b then xcell i (X i i) (X a i) (X (i - 1) (i - 1)) (X a b) (X i b)
                               else if b =? i then x0 else X a b)
                         else X a b) X _ (i + 1) r _ m ltac:(lia) HX).
  - intros a b Ha Hb. ffj_cases; reflexivity.
  - intros t s [Ht1 Ht2] Hs.
    destruct (ff_krow_spec s r c _ i t Hs ltac:(lia) Ht2 Hi) as (s1 & E1 & Hs1).
    rewrite E1. cbn [bind].
    apply (holds_wr s1 r c _ _ t i x0 Hs1 Ht2 Hi).
    intros a b Ha Hb. unfold xrow_step. ffj_cases; reflexivity.
  - intros a b Ha Hb. unfold xge_step. ffj_cases; reflexivity.
Qed.

Lemma ffge_unfold A B :
  fraction_free_gaussian_elimination A B =
  if dcol A =? 0 then ErrExn EXN_EMPTY else
  do m <- for_range 0 (dcol A - 1) (fun i m =>
            for_range (i + 1) (drow A) (fun j m =>
              do m <- ff_krow (dcol A) i j m; wr m (j * dcol A + i) x0) m) (dm A);
  Ok (setm B m).
Proof. reflexivity. Qed.

(* fraction_free_gaussian_elimination on a vector of r * c entries, c > 0: total; the result
   is the (c-1)-th iterate of xge_step *)
Theorem ffge_run A B r c :
  lenN (dm A) = r * c -> drow A = r -> dcol A = c -> 0 < c ->
  exists m, fraction_free_gaussian_elimination A B = Ok (setm B m) /\
    holds m r c (iterU (c - 1) xge_step (ent (dm A) c)).
Proof.
  intros HL Hr Hc Hc0. rewrite ffge_unfold, Hr, Hc.
  destruct (N.eqb_spec c 0); [lia|].
  destruct (for_range_iter (fun s X => holds s r c X) (c - 1)
              (fun i m => for_range (i + 1) r (fun j m =>
                 do m <- ff_krow c i j m; wr m (j * c + i) x0) m)
              xge_step (dm A) (ent (dm A) c)) as (m & E & Hm).
  - now apply holds_self.
  - intros i s X Hi HX. apply ff_ge_rows_spec; [assumption | lia].
  - exists m. rewrite E. split; [reflexivity | assumption].
Qed.

(* the same update on the entry (j, k) of a second vector bm, the pivots and the multiplier
   being read in am (forward_substitution; the first inner loop of
   fraction_free_gaussian_elimination_solve); didx is the place of the previous pivot *)
Definition rhs_cell (am : list qx) (col didx : N) (bcol i j k : N) (bm : list qx)
  : res (list qx) :=
  do aii <- rd am (i * col + i);
  do bjk <- rd bm (j * bcol + k);
  do aji <- rd am (j * col + i);
  do bik <- rd bm (i * bcol + k);
  do bm <- wr bm (j * bcol + k) (xsub (xmul aii bjk) (xmul aji bik));
  if 0 <? i then
    do v <- rd bm (j * bcol + k);
    do d <- rd am didx;
    wr bm (j * bcol + k) (xdiv v d)
  else Ok bm.

Lemma rhs_cell_spec am n L didx bm s Y i j k :
  holds am n n L -> holds bm n s Y -> i < n -> j < n -> k < s ->
  (0 < i -> didx = (i - 1) * n + (i - 1)) ->
  exists bm', rhs_cell am n didx s i j k bm = Ok bm' /\
    holds bm' n s (fun a c => if (a =? j) && (c =? k)
                              then xcell i (L i i) (L j i) (L (i - 1) (i - 1)) (Y j k) (Y i k)
                              else Y a c).
Proof.
  intros HA HY Hi Hj Hk Hd. unfold rhs_cell.
  rewrite (holds_rd am n n L HA i i) by lia. cbn [bind].
  rewrite (holds_rd bm n s Y HY j k) by lia. cbn [bind].
  rewrite (holds_rd am n n L HA j i) by lia. cbn [bind].
  rewrite (holds_rd bm n s Y HY i k) by lia. cbn [bind].
  apply (cell_store bm n s Y i j k _ (L (i - 1) (i - 1)) (fun _ => rd am didx) HY Hj Hk).
  intros Hpos _ _. rewrite (Hd Hpos). apply (holds_rd am n n L HA (i - 1) (i - 1)); lia.
Qed.

(* stage i on a right-hand side Y with the pivots and multipliers of L *)
Definition xfs_step (i : N) (L : xmat) (Y : xmat) : xmat :=
  fun a c => if i <? a then xcell i (L i i) (L a i) (L (i - 1) (i - 1)) (Y a c) (Y i c)
             else Y a c.

(* stage i, column k *)
Lemma fs_rows_spec am n L bm s Y i k :
  holds am n n L -> holds bm n s Y -> i < n -> k < s ->
  exists bm',
    for_range (i + 1) n (fun j xm => rhs_cell am n ((i - 1) * n + i - 1) s i j k xm) bm = Ok bm' /\
    holds bm' n s (fun a c => if c =? k then xfs_step i L Y a c else Y a c).
Proof.
  intros HA HY Hi Hk.
  apply (holds_loop n s
           (fun t a c => if ((i <? a) && (a <? t)) && (c =? k)
                         then xcell i (L i i) (L a i) (L (i - 1) (i - 1)) (Y a c) (Y i c)
                         else Y a c) Y _ (i + 1) n _ bm ltac:(lia) HY).
  - intros a b Ha Hb. ffj_cases; reflexivity.
  - intros t m [Ht1 Ht2] Hm.
    destruct (rhs_cell_spec am n L ((i - 1) * n + i - 1) m s _ i t k HA Hm Hi Ht2 Hk)
      as (m1 & E1 & H1).
    { intros Hpos. symmetry. apply N.add_sub_assoc. lia. }
    exists m1. split; [exact E1|].
    apply (holds_ext _ _ _ _ _ H1). intros a b Ha Hb. cbv beta. ffj_cases; reflexivity.
  - intros a b Ha Hb. unfold xfs_step. ffj_cases; reflexivity.
Qed.

(* the stages act column by column *)
Lemma xfs_col_local L k Y Y' :
  (forall a, Y a k = Y' a k) ->
  forall t a, iterU t (fun t => xfs_step t L) Y a k = iterU t (fun t => xfs_step t L) Y' a k.
Proof.
  intros H t. induction t as [|t IH] using N.peano_ind; intros a.
  - rewrite !iterU_0. apply H.
  - rewrite <- N.add_1_r. rewrite !iterU_succ. unfold xfs_step. now rewrite !IH.
Qed.

(* all the stages, column k *)
Lemma fs_col_spec am n L bm s Y k :
  holds am n n L -> holds bm n s Y -> 0 < n -> k < s ->
  exists bm',
    for_range 0 (n - 1) (fun i xm =>
      for_range (i + 1) n (fun j xm => rhs_cell am n ((i - 1) * n + i - 1) s i j k xm) xm) bm = Ok bm' /\
    holds bm' n s (fun a c => if c =? k then iterU (n - 1) (fun t => xfs_step t L) Y a c else Y a c).
Proof.
  intros HA HY Hn Hk.
  destruct (for_range_iter
              (fun m Z => holds m n s (fun a c => if c =? k then Z a c else Y a c)) (n - 1)
              (fun i xm => for_range (i + 1) n
                 (fun j xm => rhs_cell am n ((i - 1) * n + i - 1) s i j k xm) xm)
              (fun t => xfs_step t L) bm Y) as (m' & E & Hm').
  - apply (holds_ext _ _ _ _ _ HY). intros a b _ _. now destruct (b =? k).
  - intros i m Z Hi Hm.
    destruct (fs_rows_spec am n L m s _ i k HA Hm ltac:(lia) Hk) as (m1 & E1 & H1).
    exists m1. split; [exact E1|].
    apply (holds_ext _ _ _ _ _ H1). intros a b Ha Hb. unfold xfs_step. cbv beta.
    destruct (N.eqb_spec b k) as [->|ne]; [|reflexivity]. now rewrite ?N.eqb_refl.
  - exists m'. split; assumption.
Qed.

Lemma fs_unfold A b x :
  forward_substitution A b x =
  if dcol A =? 0 then ErrExn EXN_EMPTY else
  do xm <- for_range 0 (dcol b) (fun k xm =>
             for_range 0 (dcol A - 1) (fun i xm =>
               for_range (i + 1) (dcol A) (fun j xm =>
                 rhs_cell (dm A) (dcol A) ((i - 1) * dcol A + i - 1) (dcol b) i j k xm) xm) xm) (dm b);
  Ok (setm x xm).
Proof. reflexivity. Qed.

(* forward_substitution(A, b, x) with n * n entries in A, n * s entries in b, n > 0: total;
   the result is the (n-1)-th iterate of the stages on b *)
Theorem fs_run A b x n s :
  lenN (dm A) = n * n -> dcol A = n -> lenN (dm b) = n * s -> dcol b = s -> 0 < n ->
  exists xm, forward_substitution A b x = Ok (setm x xm) /\
    holds xm n s (iterU (n - 1) (fun t => xfs_step t (ent (dm A) n)) (ent (dm b) s)).
Proof.
  intros HLA HcA HLb Hcb Hn. rewrite fs_unfold, HcA, Hcb.
  destruct (N.eqb_spec n 0); [lia|].
  set (L := ent (dm A) n). set (Y0 := ent (dm b) s).
  set (F := iterU (n - 1) (fun t => xfs_step t L) Y0).
  destruct (holds_loop n s (fun k a c => if c <? k then F a c else Y0 a c) Y0 F 0 s
             (fun k xm =>
                for_range 0 (n - 1) (fun i xm =>
                  for_range (i + 1) n (fun j xm =>
                    rhs_cell (dm A) n ((i - 1) * n + i - 1) s i j k xm) xm) xm) (dm b)
             ltac:(lia) (holds_self (dm b) n s HLb)) as (m' & E & HP).
  - intros a c _ _. ffj_cases; reflexivity.
  - intros k m [_ Hk] Hm.
    destruct (fs_col_spec (dm A) n L m s _ k (holds_self (dm A) n n HLA) Hm Hn Hk) as (m1 & E1 & H1).
    exists m1. split; [exact E1|].
    apply (holds_ext _ _ _ _ _ H1). intros a c Ha Hc. cbv beta.
    destruct (N.eqb_spec c k) as [->|ne].
    + destruct (N.ltb_spec k (k + 1)); [|lia]. unfold F. apply xfs_col_local.
      intros a'. destruct (N.ltb_spec k k); [lia | reflexivity].
    + ffj_cases; reflexivity.
  - intros a c Ha Hc. ffj_cases; reflexivity.
  - exists m'. rewrite E. split; [reflexivity | exact HP].
Qed.
