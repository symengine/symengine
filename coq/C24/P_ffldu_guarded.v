(* C24 obligation: fraction_free_LDU under non-zero pivots: L * D^-1 * U = A *)
From SE Require Import C24.DenseModel C24.DenseBase C24.DenseSpec C24.DenseFF6.
Local Open Scope N_scope.
Local Open Scope res_scope.
Theorem C24_ffldu_guarded :
  forall A L D U L' D' U' n,
  fraction_free_LDU A L D U = Ok (L', D', U') ->
  good A n n -> 0 < n ->
  wf L -> drow L = n -> dcol L = n -> wf D -> drow D = n -> dcol D = n ->
  drow U = n -> dcol U = n ->
  (forall k, k + 1 < n -> x_is_zero (entry U' k k) = false) ->
  good L' n n /\ good D' n n /\ good U' n n /\
  lower_tri n (fm_of L') /\ upper_tri n (fm_of U') /\
  (forall a b, a < n -> b < n -> a <> b -> fm_of D' a b = 0%Qc) /\
  nonzero_diag n (fm_of D') /\
  fm_eq n n (fm_mul n (fm_of L') (fm_mul n (fm_dinv (fm_of D')) (fm_of U'))) (fm_of A).
Proof. exact ffldu_guarded. Qed.
Print Assumptions C24_ffldu_guarded.
