(* C24 -- LU decomposition, part 4: the guard of LU seen from outside.
   - a factorization with non-zero pivots implies the guard, and LU then returns exactly
     that factorization (LU_complete);
   - LU never leaves the vector, whatever the pivots (the entries may become zoo / nan); a
     zero pivot met by the algorithm stays on the diagonal of U, so the guard can be read
     off the result (LU_dichotomy, LU_partial). *)
From SE Require Import C24.DenseModel C24.DenseBase C24.DenseSpec C24.DenseOps C24.DenseGJ2
  C24.DenseLU C24.DenseLU2 C24.DenseLU3.
From Coq Require Import Lia ZifyBool ZifyNat ZifyN.
Local Open Scope N_scope.
Local Open Scope res_scope.

Lemma lu_guard_of_factorization n (Lf Uf A : fm) :
  unit_diag n Lf -> lower_tri n Lf -> upper_tri n Uf -> fm_eq n n (fm_mul n Lf Uf) A ->
  (forall j, j + 1 < n -> Uf j j <> 0%Qc) ->
  lu_guard n A.
Proof.
  intros H1 H2 H3 H4 Hnz j M Hj HM HMnz.
  rewrite (mid_pivot n j M (lu_pack Lf Uf) A ltac:(lia) HM HMnz (inv_of_factors n Lf Uf A H1 H2 H3 H4)).
  unfold lu_pack. destruct (N.ltb_spec j j); [lia|]. now apply Hnz.
Qed.

(* the negation of the guard, as a witness: the elimination reaches a zero pivot that has
   rows below it *)
Definition lu_breakdown (n : N) (A : fm) : Prop :=
  exists j M, j + 1 < n /\ lu_mid n j M A /\ (forall b, b < j -> M b b <> 0%Qc) /\ M j j = 0%Qc.

Lemma lu_breakdown_not_guard n A : lu_breakdown n A -> ~ lu_guard n A.
Proof. intros (j & M & Hj & HM & Hnz & Hz) HG. exact (HG j M Hj HM Hnz Hz). Qed.

(* whenever A has an LU factorization whose pivots (but possibly the last) are non-zero, LU
   returns it *)
Theorem LU_complete A L0 U0 n (Lf Uf : fm) :
  good A n n -> wf L0 -> drow L0 = n -> dcol L0 = n -> drow U0 = n -> dcol U0 = n ->
  unit_diag n Lf -> lower_tri n Lf -> upper_tri n Uf ->
  fm_eq n n (fm_mul n Lf Uf) (fm_of A) -> (forall j, j + 1 < n -> Uf j j <> 0%Qc) ->
  exists L U, LU A L0 U0 = Ok (L, U) /\ good L n n /\ good U n n /\
    fm_eq n n (fm_of L) Lf /\ fm_eq n n (fm_of U) Uf.
Proof.
  intros HA WL HrL HcL HrU HcU H1 H2 H3 H4 Hnz.
  destruct (LU_spec A L0 U0 n HA WL HrL HcL HrU HcU
              (lu_guard_of_factorization n Lf Uf _ H1 H2 H3 H4 Hnz))
    as (L & U & E & GL & GU & K1 & K2 & K3 & _ & K4).
  exists L, U. split; [exact E|]. split; [assumption|]. split; [assumption|].
  destruct (lu_factorization_unique n Lf Uf (fm_of L) (fm_of U) (fm_of A)) as [EL EU]; try assumption.
  split; intros a b Ha Hb; symmetry; [now apply EL | now apply EU].
Qed.

(* LU always returns (it never leaves the vector and throws nothing).  Either all pivots
   met were non-zero and the result is the factorization, all rational; or a zero pivot
   with rows below it was met: the algorithm divided by it (1/0 = zoo), the factors contain
   zoo / nan in general, and that pivot is still there as a zero on the diagonal of U. *)
Theorem LU_dichotomy A L0 U0 n :
  good A n n -> wf L0 -> drow L0 = n -> dcol L0 = n -> drow U0 = n -> dcol U0 = n ->
  exists L U, LU A L0 U0 = Ok (L, U) /\
    wf L /\ wf U /\ drow L = n /\ dcol L = n /\ drow U = n /\ dcol U = n /\
    ((lu_guard n (fm_of A) /\
      fin_mat L /\ fin_mat U /\
      unit_diag n (fm_of L) /\ lower_tri n (fm_of L) /\ upper_tri n (fm_of U) /\
      (forall j, j + 1 < n -> fm_of U j j <> 0%Qc) /\
      fm_eq n n (fm_mul n (fm_of L) (fm_of U)) (fm_of A))
     \/
     (lu_breakdown n (fm_of A) /\ exists b, b + 1 < n /\ entry U b b = x0)).
Proof.
  intros HA WL HrL HcL HrU HcU.
  pose proof (good_repr A n n HA) as HS0. destruct HA as (WA & FA & HrA & HcA).
  rewrite LU_unfold, HrA.
  destruct (LU_packed_dich n (dm A) (fm_of A) HS0) as (m' & E & HL' & HD).
  rewrite E. cbn [bind].
  destruct HD as [(M & HS & HI & HNZ)|(HB & b & Hb & Hz)].
  - destruct (lu_split_factors n m' M (fm_of A) L0 U0 HS HI WL HrL HcL HrU HcU)
      as (lm & um & E2 & GL & GU & H1 & H2 & H3 & Hd & H4).
    rewrite E2. cbn [bind fst snd].
    exists (setm L0 lm), (setm U0 um). split; [reflexivity|].
    destruct GL as (G1 & G2 & G3 & G4). destruct GU as (G5 & G6 & G7 & G8).
    split; [assumption|]. split; [assumption|]. split; [assumption|]. split; [assumption|].
    split; [assumption|]. split; [assumption|]. left.
    assert (Hpiv : forall j, j + 1 < n -> fm_of (setm U0 um) j j <> 0%Qc).
    { intros j Hj. rewrite Hd by lia. now apply HNZ. }
    split; [|split; [assumption|]; split; [assumption|]; split; [assumption|]; split; [assumption|];
             split; [assumption|]; split; assumption].
    apply (lu_guard_of_factorization n (fm_of (setm L0 lm)) (fm_of (setm U0 um))); assumption.
  - assert (HLl : lenN (dm L0) = n * n) by (unfold wf in WL; now rewrite WL, HrL, HcL).
    destruct (lu_split_spec (dm L0) m' n HLl HL') as (lm & um & E2 & HLlm & HLum & Hent).
    rewrite E2. cbn [bind fst snd].
    exists (setm L0 lm), (setm U0 um). split; [reflexivity|].
    unfold wf, setm, entry. cbn [dm drow dcol].
    split; [now rewrite HLlm, HrL, HcL|]. split; [now rewrite HLum, HrU, HcU|].
    split; [assumption|]. split; [assumption|]. split; [assumption|]. split; [assumption|]. right.
    split; [assumption|]. exists b. split; [assumption|]. rewrite HcU.
    destruct (Hent b b) as [_ ->]; try lia. destruct (N.ltb_spec b b); [lia | assumption].
Qed.

Corollary LU_always_ok A L0 U0 n :
  good A n n -> wf L0 -> drow L0 = n -> dcol L0 = n -> drow U0 = n -> dcol U0 = n ->
  exists r, LU A L0 U0 = Ok r.
Proof.
  intros HA WL HrL HcL HrU HcU.
  destruct (LU_dichotomy A L0 U0 n HA WL HrL HcL HrU HcU) as (L & U & E & _).
  eexists. exact E.
Qed.

(* LU_spec in its partial-correctness form, the guard read off the result: the pivots the
   algorithm divides by are the diagonal entries U[j,j], j + 1 < n, of the result (they are
   never written again); if none of them is zero then every number computed was rational
   and the result is the factorization. *)
Corollary LU_partial A L0 U0 n L U :
  LU A L0 U0 = Ok (L, U) ->
  good A n n -> wf L0 -> drow L0 = n -> dcol L0 = n -> drow U0 = n -> dcol U0 = n ->
  (forall j, j + 1 < n -> x_is_zero (entry U j j) = false) ->
  good L n n /\ good U n n /\
  unit_diag n (fm_of L) /\ lower_tri n (fm_of L) /\ upper_tri n (fm_of U) /\
  fm_eq n n (fm_mul n (fm_of L) (fm_of U)) (fm_of A).
Proof.
  intros E HA WL HrL HcL HrU HcU Hdiag.
  destruct (LU_dichotomy A L0 U0 n HA WL HrL HcL HrU HcU)
    as (L' & U' & E' & W1 & W2 & D1 & D2 & D3 & D4 & HD).
  rewrite E' in E. inversion E; subst L' U'.
  destruct HD as [(_ & F1 & F2 & H1 & H2 & H3 & _ & H4)|(_ & b & Hb & Hz)].
  - unfold good. split; [|split; [|split; [|split; [|split]]]]; try assumption; tauto.
  - specialize (Hdiag b Hb). rewrite Hz in Hdiag. discriminate.
Qed.
