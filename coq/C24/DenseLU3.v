(* C24 -- LU decomposition, part 3: the theorems about LU and pivoted_LU. *)
From SE Require Import C24.DenseModel C24.DenseBase C24.DenseSpec C24.DenseOps C24.DenseGJ2 C24.DenseSolve
  C24.DenseLU C24.DenseLU2.
From Coq Require Import Lia ZifyBool ZifyNat ZifyN.
Local Open Scope N_scope.
Local Open Scope res_scope.

Lemma lu_factors n (L U M A : fm) :
  fm_eq n n (lu_L M) L -> fm_eq n n (lu_U M) U -> lu_inv n n M A ->
  unit_diag n L /\ lower_tri n L /\ upper_tri n U /\ fm_eq n n (fm_mul n L U) A.
Proof.
  intros HLf HUf HI. split; [|split; [|split]].
  - intros i Hi. rewrite <- HLf by assumption. now apply (lu_L_unit n).
  - intros i j Hi Hj Hij. rewrite <- HLf by assumption. now apply (lu_L_lower n).
  - intros i j Hi Hij. rewrite <- HUf by (assumption || lia). now apply (lu_U_upper n).
  - intros a b Ha Hb. rewrite <- (lu_prod n M A HI a b Ha Hb).
    apply fm_mul_ext; intros k Hk; symmetry; [now apply HLf | now apply HUf].
Qed.

(* a finished packed matrix, split: the two factors, with the diagonal of the packed matrix
   on the diagonal of U *)
Lemma lu_split_factors n m M A L0 U0 :
  repr m n n M -> lu_inv n n M A ->
  wf L0 -> drow L0 = n -> dcol L0 = n -> drow U0 = n -> dcol U0 = n ->
  exists lm um, lu_split (dm L0) m n = Ok (lm, um) /\
    good (setm L0 lm) n n /\ good (setm U0 um) n n /\
    unit_diag n (fm_of (setm L0 lm)) /\ lower_tri n (fm_of (setm L0 lm)) /\
    upper_tri n (fm_of (setm U0 um)) /\
    (forall j, j < n -> fm_of (setm U0 um) j j = M j j) /\
    fm_eq n n (fm_mul n (fm_of (setm L0 lm)) (fm_of (setm U0 um))) A.
Proof.
  intros (HL & HE) HI WL HrL HcL HrU HcU.
  assert (HLl : lenN (dm L0) = n * n) by (unfold wf in WL; now rewrite WL, HrL, HcL).
  destruct (lu_split_spec (dm L0) m n HLl HL) as (lm & um & E & HLlm & HLum & Hent).
  assert (RL : repr lm n n (lu_L M)).
  { split; [exact HLlm|]. intros a b Ha Hb. destruct (Hent a b Ha Hb) as [-> _]. unfold lu_L.
    destruct (N.ltb_spec b a); [now apply HE|]. destruct (N.eqb_spec b a); reflexivity. }
  assert (RU : repr um n n (lu_U M)).
  { split; [exact HLum|]. intros a b Ha Hb. destruct (Hent a b Ha Hb) as [_ ->]. unfold lu_U.
    destruct (N.ltb_spec b a); [reflexivity | now apply HE]. }
  destruct (repr_good lm n n _ L0 RL HrL HcL) as (GL & FL).
  destruct (repr_good um n n _ U0 RU HrU HcU) as (GU & FU).
  destruct (lu_factors n _ _ M A FL FU HI) as (H1 & H2 & H3 & H4).
  exists lm, um. split; [exact E|]. split; [exact GL|]. split; [exact GU|].
  split; [exact H1|]. split; [exact H2|]. split; [exact H3|]. split; [|exact H4].
  intros j Hj. rewrite <- FU by assumption. apply lu_U_diag.
Qed.

Lemma scale_col n j m M A :
  j < n -> repr m n n M -> lu_mid n j M A -> (j + 1 < n -> M j j <> 0%Qc) ->
  exists m' M',
    for_range (j + 1) n (fun i um =>
      do uij <- rd um (i * n + j);
      wr um (i * n + j) (xmul uij (xdiv x1 (Fin (M j j))))) m = Ok m' /\
    repr m' n n M' /\ lu_inv n (j + 1) M' A /\
    (forall b, b <= j -> M' b b = M b b).
Proof.
  intros Hj HS HM Hp.
  destruct (scale_loop n j m M (xdiv x1 (Fin (M j j))) (/ M j j)%Qc Hj HS) as (m' & E & HS').
  { intros H. apply xdiv_one_fin. now apply Hp. }
  exists m'. eexists. split; [exact E|]. split; [exact HS'|]. split.
  - apply (mid_to_inv n j M _ A Hj HM Hp). intros a b _ _. reflexivity.
  - intros b Hb. cbv beta. destruct (N.ltb_spec j b); [lia | reflexivity].
Qed.

(* The guard "every pivot met by the algorithm is non-zero", stated on the mathematics:
   whenever a packed matrix M satisfies the Doolittle equations of A for the columns < j
   and for the unscaled column j (this determines M there: lu_unique in DenseLU.v) and its
   earlier pivots are non-zero, its pivot M j j is non-zero.  The last pivot (j = n - 1) is
   never divided by -- there is no row below it -- and may be zero. *)
Definition lu_guard (n : N) (A : fm) : Prop :=
  forall j M, j + 1 < n -> lu_mid n j M A -> (forall b, b < j -> M b b <> 0%Qc) ->
    M j j <> 0%Qc.

(* column j of LU: the dot products above and from the diagonal down, then the scaling by
   the pivot *)
Definition lu_col (n j : N) (um : list qx) : res (list qx) :=
  do um <- for_range 0 j (fun i um => lu_dot um n i j i) um;
  do um <- for_range j n (fun i um => lu_dot um n i j j) um;
  do ujj <- rd um (j * n + j);
  for_range (j + 1) n (fun i um =>
    do uij <- rd um (i * n + j);
    wr um (i * n + j) (xmul uij (xdiv x1 ujj))) um.

Lemma LU_unfold A L U :
  LU A L U =
  do um <- for_range 0 (drow A) (lu_col (drow A)) (dm A);
  do st <- lu_split (dm L) um (drow A);
  Ok (setm L (fst st), setm U (snd st)).
Proof. reflexivity. Qed.

(* what the loops do on arbitrary entries: they stay inside the vector and write only the
   positions they are meant to write *)
Lemma for_range_frame n (keep : N -> N -> Prop) lo hi (body : N -> list qx -> res (list qx)) m :
  lenN m = n * n -> lo <= hi ->
  (forall t s, lo <= t < hi -> lenN s = n * n ->
     exists s', body t s = Ok s' /\ lenN s' = n * n /\
       forall a b, a < n -> b < n -> keep a b -> ent s' n a b = ent s n a b) ->
  exists m', for_range lo hi body m = Ok m' /\ lenN m' = n * n /\
    forall a b, a < n -> b < n -> keep a b -> ent m' n a b = ent m n a b.
Proof.
  intros HL Hlh Hstep.
  apply (for_range_inv (fun _ s => lenN s = n * n /\
           forall a b, a < n -> b < n -> keep a b -> ent s n a b = ent m n a b)); [assumption | now split |].
  intros t s Ht (HLs & Hs). destruct (Hstep t s Ht HLs) as (s' & E & HL' & Hf).
  exists s'. split; [exact E|]. split; [assumption|].
  intros a b Ha Hb Hk. rewrite Hf by assumption. now apply Hs.
Qed.

Lemma lu_dot_frame m n i j kmax :
  lenN m = n * n -> i < n -> j < n -> kmax <= n ->
  exists m', lu_dot m n i j kmax = Ok m' /\ lenN m' = n * n /\
    forall a b, a < n -> b < n -> (a <> i \/ b <> j) -> ent m' n a b = ent m n a b.
Proof.
  intros HL Hi Hj Hk. unfold lu_dot.
  apply (for_range_frame n (fun a b => a <> i \/ b <> j)); [assumption | lia |].
  intros t s [_ Ht] HLs.
  rewrite rd_ok by (rewrite HLs; apply idx_lt; lia). cbn [bind].
  rewrite rd_ok by (rewrite HLs; apply idx_lt; lia). cbn [bind].
  rewrite rd_ok by (rewrite HLs; apply idx_lt; lia). cbn [bind].
  rewrite wr_ok by (rewrite HLs; apply idx_lt; lia).
  eexists; split; [reflexivity|]. rewrite lenN_upd. split; [assumption|].
  intros a b Ha Hb Hc. rewrite (ent_upd s n n i j a b) by (assumption || lia).
  destruct (N.eqb_spec a i), (N.eqb_spec b j); cbn [andb]; try lia; reflexivity.
Qed.

Lemma dots_frame n j lo hi (kf : N -> N) m :
  lenN m = n * n -> j < n -> lo <= hi -> hi <= n -> (forall i, lo <= i < hi -> kf i <= n) ->
  exists m', for_range lo hi (fun i um => lu_dot um n i j (kf i)) m = Ok m' /\ lenN m' = n * n /\
    forall a b, a < n -> b < n -> b <> j -> ent m' n a b = ent m n a b.
Proof.
  intros HL Hj Hlh Hhn Hkf.
  apply (for_range_frame n (fun _ b => b <> j)); [assumption | assumption |].
  intros t s Ht HLs.
  destruct (lu_dot_frame s n t j (kf t) HLs ltac:(lia) Hj (Hkf t Ht)) as (s' & E' & HL' & Hf).
  exists s'. split; [exact E'|]. split; [assumption|]. intros a b Ha Hb Hne. apply Hf; auto.
Qed.

Lemma scale_frame n j m sc :
  lenN m = n * n -> j < n ->
  exists m',
    for_range (j + 1) n (fun i um =>
      do uij <- rd um (i * n + j);
      wr um (i * n + j) (xmul uij sc)) m = Ok m' /\ lenN m' = n * n /\
    forall a b, a < n -> b < n -> (b <> j \/ a <= j) -> ent m' n a b = ent m n a b.
Proof.
  intros HL Hj.
  apply (for_range_frame n (fun a b => b <> j \/ a <= j)); [assumption | lia |].
  intros t s Ht HLs.
  rewrite rd_ok by (rewrite HLs; apply idx_lt; lia). cbn [bind].
  rewrite wr_ok by (rewrite HLs; apply idx_lt; lia).
  eexists; split; [reflexivity|]. rewrite lenN_upd. split; [assumption|].
  intros a b Ha Hb Hc. rewrite (ent_upd s n n t j a b) by (assumption || lia).
  destruct (N.eqb_spec a t), (N.eqb_spec b j); cbn [andb]; try lia; reflexivity.
Qed.

(* one column of LU on arbitrary entries *)
Lemma lu_col_frame n j m :
  lenN m = n * n -> j < n ->
  exists m', lu_col n j m = Ok m' /\ lenN m' = n * n /\
    forall a b, a < n -> b < n -> b <> j -> ent m' n a b = ent m n a b.
Proof.
  intros HL Hj. unfold lu_col.
  destruct (dots_frame n j 0 j (fun i => i) m HL Hj) as (m1 & E1 & HL1 & F1); try lia.
  cbv beta in E1. rewrite E1. cbn [bind].
  destruct (dots_frame n j j n (fun _ => j) m1 HL1 Hj) as (m2 & E2 & HL2 & F2); try lia.
  cbv beta in E2. rewrite E2. cbn [bind].
  rewrite rd_ok by (rewrite HL2; apply idx_lt; lia). cbn [bind].
  destruct (scale_frame n j m2 (xdiv x1 (nthx m2 (j * n + j))) HL2 Hj) as (m3 & E3 & HL3 & F3).
  rewrite E3. exists m3. split; [reflexivity|]. split; [assumption|].
  intros a b Ha Hb Hne. rewrite F3, F2, F1 by (try assumption; lia). reflexivity.
Qed.

(* the run of LU on rational entries, whatever the pivots: either all the pivots divided by
   were non-zero and the packed result satisfies the Doolittle equations of A, or the
   elimination reached a zero pivot with rows below it ([lu_breakdown] in DenseLU4.v), which
   is still on the diagonal of the result *)
Lemma LU_packed_dich n m A :
  repr m n n A ->
  exists m', for_range 0 n (lu_col n) m = Ok m' /\ lenN m' = n * n /\
    ((exists M, repr m' n n M /\ lu_inv n n M A /\ (forall b, b + 1 < n -> M b b <> 0%Qc)) \/
     ((exists j M, j + 1 < n /\ lu_mid n j M A /\ (forall b, b < j -> M b b <> 0%Qc) /\ M j j = 0%Qc) /\
      exists b, b + 1 < n /\ ent m' n b b = x0)).
Proof.
  intros HS0.
  pose (B := exists j M, j + 1 < n /\ lu_mid n j M A /\ (forall b, b < j -> M b b <> 0%Qc) /\ M j j = 0%Qc).
  pose (P := fun (j : N) (m' : list qx) =>
    lenN m' = n * n /\
    ((exists M, repr m' n n M /\ lu_inv n j M A /\ (forall b, b < j -> b + 1 < n -> M b b <> 0%Qc)) \/
     (B /\ exists b, b < j /\ b + 1 < n /\ ent m' n b b = x0))).
  destruct (for_range_inv P 0 n (lu_col n) m) as (m' & E & HL' & HP).
  - lia.
  - split; [apply HS0|]. left. exists A. split; [assumption|]. split; [apply lu_inv_0 | intros; lia].
  - intros j s [_ Hj] (HLs & [(M & HS & HI & HNZ)|(HB & b & Hb & Hb1 & Hz)]); unfold lu_col.
    + (* rational so far *)
      destruct (dots_loop n j 0 j (fun i => i) s M M) as (m1 & M1 & E1 & HS1 & HD1);
        try assumption; try lia; try apply dots_part_0.
      cbv beta in E1. rewrite E1. cbn [bind].
      destruct (dots_loop n j j n (fun _ => j) m1 M1 M) as (m2 & M2 & E2 & HS2 & HD2);
        try assumption; try lia.
      cbv beta in E2. rewrite E2. cbn [bind].
      apply dots_part_n in HD2.
      pose proof (inv_to_mid n j M M2 A Hj HI HD2) as HM.
      assert (Hold : forall b, b < j -> M2 b b = M b b).
      { intros b Hb. apply HD2; lia. }
      rewrite (repr_rd m2 n n M2 HS2 j j Hj Hj). cbn [bind].
      destruct (pivot_case j n (M2 j j)) as [[Hlt Hz]|Hnz].
      * (* a zero pivot with rows below it: it stays where it is *)
        destruct HS2 as (HL2 & HE2).
        destruct (scale_frame n j m2 (xdiv x1 (Fin (M2 j j))) HL2 Hj) as (m3 & E3 & HL3 & F3).
        rewrite E3. exists m3. split; [reflexivity|]. split; [assumption|]. right. split.
        -- exists j, M2. split; [assumption|]. split; [assumption|]. split; [|assumption].
           intros b Hb. rewrite Hold by assumption. apply HNZ; lia.
        -- exists j. split; [lia|]. split; [assumption|].
           rewrite F3 by (try assumption; lia). rewrite (HE2 j j Hj Hj), Hz. reflexivity.
      * destruct (scale_col n j m2 M2 A Hj HS2 HM Hnz) as (m3 & M3 & E3 & HS3 & HI3 & Hd3).
        rewrite E3. exists m3. split; [reflexivity|]. split; [apply HS3|]. left.
        exists M3. split; [assumption|]. split; [assumption|].
        intros b Hb Hb1. rewrite Hd3 by lia. destruct (N.eq_dec b j) as [->|Hne]; [now apply Hnz|].
        rewrite Hold by lia. apply HNZ; lia.
    + (* a zero pivot was met before: nothing is known but the frame *)
      destruct (lu_col_frame n j s HLs Hj) as (m3 & E3 & HL3 & F3).
      fold (lu_col n j s). rewrite E3. exists m3. split; [reflexivity|]. split; [assumption|]. right.
      split; [assumption|]. exists b. split; [lia|]. split; [assumption|].
      rewrite F3 by lia. assumption.
  - exists m'. split; [exact E|]. split; [assumption|].
    destruct HP as [(M & HS & HI & HNZ)|(HB & b & Hb & Hb1 & Hz)].
    + left. exists M. split; [assumption|]. split; [assumption|]. intros b Hb. apply HNZ; lia.
    + right. split; [assumption|]. exists b. split; assumption.
Qed.

(* total correctness: under the guard, LU returns the factors, all rational,
   L unit lower triangular, U upper triangular, L * U = A. *)
Theorem LU_spec A L0 U0 n :
  good A n n -> wf L0 -> drow L0 = n -> dcol L0 = n -> drow U0 = n -> dcol U0 = n ->
  lu_guard n (fm_of A) ->
  exists L U, LU A L0 U0 = Ok (L, U) /\ good L n n /\ good U n n /\
    unit_diag n (fm_of L) /\ lower_tri n (fm_of L) /\ upper_tri n (fm_of U) /\
    (forall j, j + 1 < n -> fm_of U j j <> 0%Qc) /\
    fm_eq n n (fm_mul n (fm_of L) (fm_of U)) (fm_of A).
Proof.
  intros HA WL HrL HcL HrU HcU HG.
  pose proof (good_repr A n n HA) as HS0. destruct HA as (WA & FA & HrA & HcA).
  rewrite LU_unfold, HrA.
  destruct (LU_packed_dich n (dm A) (fm_of A) HS0)
    as (m' & E & _ & [(M & HS & HI & HNZ)|((j & M & Hj & HM & Hnz & Hz) & _)]);
    [|destruct (HG j M Hj HM Hnz Hz)].
  rewrite E. cbn [bind].
  destruct (lu_split_factors n m' M (fm_of A) L0 U0 HS HI WL HrL HcL HrU HcU)
    as (lm & um & E2 & GL & GU & H1 & H2 & H3 & Hd & H4).
  rewrite E2. cbn [bind fst snd].
  exists (setm L0 lm), (setm U0 um). split; [reflexivity|]. split; [assumption|]. split; [assumption|].
  split; [assumption|]. split; [assumption|]. split; [assumption|]. split; [|assumption].
  intros j Hj. rewrite Hd by lia. now apply HNZ.
Qed.

(* a loop whose body may throw the exception c *)
Lemma for_up_inv_exn {St} (P : N -> St -> Prop) (R : Prop) c n i (body : N -> St -> res St) s :
  P i s ->
  (forall k s, i <= k < i + N.of_nat n -> P k s ->
     (exists s', body k s = Ok s' /\ P (k + 1) s') \/ (body k s = ErrExn c /\ R)) ->
  (exists s', for_up n i body s = Ok s' /\ P (i + N.of_nat n) s') \/
  (for_up n i body s = ErrExn c /\ R).
Proof.
  revert i s. induction n as [|n IH]; intros i s H0 Hstep.
  - left. exists s. split; [reflexivity|]. now replace (i + N.of_nat 0) with i by lia.
  - rewrite for_up_S.
    destruct (Hstep i s ltac:(lia) H0) as [(s1 & E1 & P1)|[E1 HR]].
    + rewrite E1. cbn [bind].
      destruct (IH (i + 1) s1 P1) as [(s2 & E2 & P2)|[E2 HR]].
      * intros k s' Hk. apply Hstep. lia.
      * left. exists s2. split; [exact E2|].
        now replace (i + N.of_nat (S n)) with (i + 1 + N.of_nat n) by lia.
      * right. split; assumption.
    + right. rewrite E1. split; [reflexivity | assumption].
Qed.

Lemma for_range_inv_exn {St} (P : N -> St -> Prop) (R : Prop) c a b (body : N -> St -> res St) s :
  a <= b -> P a s ->
  (forall k s, a <= k < b -> P k s ->
     (exists s', body k s = Ok s' /\ P (k + 1) s') \/ (body k s = ErrExn c /\ R)) ->
  (exists s', for_range a b body s = Ok s' /\ P b s') \/ (for_range a b body s = ErrExn c /\ R).
Proof.
  intros Hab H0 Hstep. unfold for_range.
  destruct (for_up_inv_exn P R c (N.to_nat (b - a)) a body s H0) as [(s' & E & Hp)|H].
  - intros k s' Hk. apply Hstep. lia.
  - left. exists s'. split; [assumption|]. now replace b with (a + N.of_nat (N.to_nat (b - a))) by lia.
  - right. exact H.
Qed.

(* what the exception of pivoted_LU means: after some row exchanges the elimination reaches
   a column j whose entries on and below the diagonal are all zero *)
Definition lu_stuck (n : N) (A : fm) : Prop :=
  exists pl j M, j < n /\ lu_mid n j M (apply_perm pl A) /\
    (forall b, b < j -> M b b <> 0%Qc) /\ (forall i, j <= i < n -> M i j = 0%Qc).

Definition perm_ok (n : N) (pl : list (N * N)) : Prop :=
  Forall (fun p => snd p < fst p /\ fst p < n) pl.

(* column j of pivoted_LU_packed: the dot products, the search for the first non-zero entry
   from the diagonal down, the row exchange, the scaling *)
Definition plu_col (n j : N) (st : list qx * list (N * N)) : res (list qx * list (N * N)) :=
  let (m, pl) := st in
  do m <- for_range 0 j (fun i m => lu_dot m n i j i) m;
  do st2 <- for_range j n (fun i (st2 : list qx * option N) =>
              let (m, piv) := st2 in
              do m <- lu_dot m n i j j;
              do e <- rd m (i * n + j);
              Ok (m, match piv with
                     | None => if x_is_zero e then None else Some i
                     | Some p => Some p
                     end)) (m, None);
  let (m, piv) := st2 in
  match piv with
  | None => ErrExn EXN_RANKDEF
  | Some p =>
      do st3 <- (if p =? j then Ok (m, pl)
                 else do m <- row_exchange m n p j; Ok (m, pl ++ [(p, j)]));
      let (m, pl) := st3 in
      do ujj <- rd m (j * n + j);
      do m <- for_range (j + 1) n (fun i m =>
                do uij <- rd m (i * n + j);
                wr m (i * n + j) (xmul uij (xdiv x1 ujj))) m;
      Ok (m, pl)
  end.

Lemma pivoted_LU_packed_unfold A LUm pl0 :
  pivoted_LU_packed A LUm pl0 =
  do st <- for_range 0 (drow A) (plu_col (drow A)) (dm A, pl0);
  Ok (setm LUm (fst st), snd st).
Proof. reflexivity. Qed.

(* the optional row exchange of column j: the pivot found in row p comes to the diagonal,
   the exchange is recorded, the rows above j are not touched *)
Lemma plu_exchange n j p m2 M2 pl0 pl A :
  j < n -> j <= p < n -> M2 p j <> 0%Qc ->
  repr m2 n n M2 -> lu_mid n j M2 (apply_perm pl A) -> perm_ok n pl ->
  exists m3 pl3 M3,
    (if p =? j then Ok (m2, pl0 ++ pl)
     else do m <- row_exchange m2 n p j; Ok (m, (pl0 ++ pl) ++ [(p, j)])) = Ok (m3, pl0 ++ pl3) /\
    repr m3 n n M3 /\ lu_mid n j M3 (apply_perm pl3 A) /\ M3 j j <> 0%Qc /\
    (forall b, b < j -> M3 b b = M2 b b) /\ perm_ok n pl3.
Proof.
  intros Hj Hp Hpnz HS2 HM HPL.
  destruct (N.eqb_spec p j) as [->|Hne].
  - exists m2, pl, M2. split; [reflexivity|]. split; [assumption|]. split; [assumption|].
    split; [assumption|]. split; [reflexivity | assumption].
  - destruct (repr_swap m2 n n M2 p j HS2) as (m3 & E3 & HS3); try lia.
    rewrite E3. cbn [bind]. exists m3, (pl ++ [(p, j)]), (fm_swap p j M2).
    split; [now rewrite app_assoc|]. split; [exact HS3|]. split; [|split; [|split]].
    + rewrite apply_perm_app. apply mid_swap; (assumption || lia).
    + unfold fm_swap. destruct (N.eqb_spec j p); [lia|]. now rewrite N.eqb_refl.
    + intros b Hb. unfold fm_swap. destruct (N.eqb_spec b p); [lia|].
      destruct (N.eqb_spec b j); [lia | reflexivity].
    + apply Forall_app. split; [assumption|]. constructor; [cbn [fst snd]; lia | constructor].
Qed.

Lemma pivoted_packed_loop n m A pl0 :
  repr m n n A ->
  (exists m' pl M, for_range 0 n (plu_col n) (m, pl0) = Ok (m', pl0 ++ pl) /\
    repr m' n n M /\ lu_inv n n M (apply_perm pl A) /\
    (forall b, b < n -> M b b <> 0%Qc) /\ perm_ok n pl)
  \/ (for_range 0 n (plu_col n) (m, pl0) = ErrExn EXN_RANKDEF /\ lu_stuck n A).
Proof.
  intros HS0.
  pose (P := fun (j : N) (st : list qx * list (N * N)) =>
    exists pl M, snd st = pl0 ++ pl /\ repr (fst st) n n M /\ lu_inv n j M (apply_perm pl A) /\
      (forall b, b < j -> M b b <> 0%Qc) /\ perm_ok n pl).
  destruct (for_range_inv_exn P (lu_stuck n A) EXN_RANKDEF 0 n (plu_col n) (m, pl0))
    as [([m' pl'] & E & pl & M & Epl & HS & HI & HNZ & HPL)|[E HR]].
  - lia.
  - exists [], A. cbn [fst snd]. split; [now rewrite app_nil_r|]. split; [assumption|].
    split; [apply lu_inv_0|]. split; [intros; lia | constructor].
  - intros j [s pl'] [_ Hj] (pl & M & Epl & HS & HI & HNZ & HPL). cbn [fst snd] in *. subst pl'.
    unfold plu_col.
    destruct (dots_loop n j 0 j (fun i => i) s M M) as (m1 & M1 & E1 & HS1 & HD1);
      try assumption; try lia; try apply dots_part_0.
    cbv beta in E1. rewrite E1. cbn [bind].
    destruct (pivot_dots_loop n j m1 M1 M Hj HS1 HD1) as (m2 & M2 & piv & E2 & HS2 & HD2 & Hpiv).
    rewrite E2. cbn [bind]. cbv beta iota.
    apply dots_part_n in HD2.
    pose proof (inv_to_mid n j M M2 _ Hj HI HD2) as HM.
    assert (Hold : forall b, b < j -> M2 b b = M b b).
    { intros b Hb. apply HD2; lia. }
    destruct piv as [p|].
    + left. destruct Hpiv as (Hp & Hpnz).
      destruct (plu_exchange n j p m2 M2 pl0 pl A Hj Hp Hpnz HS2 HM HPL)
        as (m3 & pl3 & M3 & E3 & HS3 & HM3 & Hnz3 & Hold3 & HPL3).
      rewrite E3. cbn [bind]. cbv beta iota.
      rewrite (repr_rd m3 n n M3 HS3 j j Hj Hj). cbn [bind]. cbv zeta.
      destruct (scale_col n j m3 M3 _ Hj HS3 HM3 (fun _ => Hnz3))
        as (m4 & M4 & E4 & HS4 & HI4 & Hd4).
      rewrite E4. cbn [bind]. eexists; split; [reflexivity|].
      exists pl3, M4. cbn [fst snd]. split; [reflexivity|]. split; [assumption|]. split; [assumption|].
      split; [|assumption].
      intros b Hb. rewrite Hd4 by lia. destruct (N.eq_dec b j) as [->|Hne]; [assumption|].
      rewrite Hold3, Hold by lia. apply HNZ; lia.
    + right. split; [reflexivity|]. exists pl, j, M2. split; [assumption|]. split; [assumption|].
      split; [|assumption]. intros b Hb. rewrite Hold by assumption. now apply HNZ.
  - left. cbn [fst snd] in *. subst pl'. exists m', pl, M. split; [exact E|].
    split; [assumption|]. split; [assumption|]. split; assumption.
  - right. split; assumption.
Qed.

(* total correctness: pivoted_LU either throws "rank deficient" or returns the
   factors of the row-permuted matrix; no guard is needed, every division is by a pivot that
   was tested non-zero, all entries stay rational, U has a non-zero diagonal. *)
Theorem pivoted_LU_total A L0 U0 pl0 n :
  good A n n -> wf L0 -> drow L0 = n -> dcol L0 = n -> drow U0 = n -> dcol U0 = n ->
  (exists L U pl, pivoted_LU A L0 U0 pl0 = Ok (L, U, pl0 ++ pl) /\
     good L n n /\ good U n n /\
     unit_diag n (fm_of L) /\ lower_tri n (fm_of L) /\ upper_tri n (fm_of U) /\
     nonzero_diag n (fm_of U) /\ perm_ok n pl /\
     fm_eq n n (fm_mul n (fm_of L) (fm_of U)) (apply_perm pl (fm_of A)))
  \/ (pivoted_LU A L0 U0 pl0 = ErrExn EXN_RANKDEF /\ lu_stuck n (fm_of A)).
Proof.
  intros HA WL HrL HcL HrU HcU.
  pose proof (good_repr A n n HA) as HS0. destruct HA as (WA & FA & HrA & HcA).
  unfold pivoted_LU. rewrite pivoted_LU_packed_unfold, HrA, HcA.
  destruct (pivoted_packed_loop n (dm A) (fm_of A) pl0 HS0)
    as [(m' & pl & M & E & HS & HI & HNZ & HPL)|[E HR]].
  - left. rewrite E. cbn [bind fst snd]. cbv beta iota. cbn [dm setm].
    destruct (lu_split_factors n m' M _ L0 U0 HS HI WL HrL HcL HrU HcU)
      as (lm & um & E2 & GL & GU & H1 & H2 & H3 & Hd & H4).
    rewrite E2. cbn [bind fst snd].
    exists (setm L0 lm), (setm U0 um), pl. split; [reflexivity|]. split; [assumption|]. split; [assumption|].
    split; [assumption|]. split; [assumption|]. split; [assumption|].
    split; [|split; [assumption | assumption]].
    intros j Hj. rewrite Hd by assumption. now apply HNZ.
  - right. rewrite E. split; [reflexivity | assumption].
Qed.

(* the partial-correctness reading, with the empty initial permutation list *)
Corollary pivoted_LU_spec A L0 U0 n L U pl :
  pivoted_LU A L0 U0 [] = Ok (L, U, pl) ->
  good A n n -> wf L0 -> drow L0 = n -> dcol L0 = n -> drow U0 = n -> dcol U0 = n ->
  good L n n /\ good U n n /\
  unit_diag n (fm_of L) /\ lower_tri n (fm_of L) /\ upper_tri n (fm_of U) /\
  nonzero_diag n (fm_of U) /\
  (forall p q, In (p, q) pl -> q < p /\ p < n) /\
  fm_eq n n (fm_mul n (fm_of L) (fm_of U)) (apply_perm pl (fm_of A)).
Proof.
  intros E HA WL HrL HcL HrU HcU.
  destruct (pivoted_LU_total A L0 U0 [] n HA WL HrL HcL HrU HcU)
    as [(L' & U' & pl' & E' & H1 & H2 & H3 & H4 & H5 & H6 & H7 & H8)|[E' _]].
  - rewrite E' in E. cbn [app] in E. inversion E; subst L' U' pl'.
    split; [assumption|]. split; [assumption|]. split; [assumption|]. split; [assumption|].
    split; [assumption|]. split; [assumption|]. split; [|assumption].
    intros p q Hin. unfold perm_ok in H7. rewrite Forall_forall in H7.
    apply (H7 (p, q) Hin).
  - rewrite E' in E. discriminate.
Qed.

(* on good inputs pivoted_LU never runs out of the vector *)
Corollary pivoted_LU_no_oob A L0 U0 pl0 n :
  good A n n -> wf L0 -> drow L0 = n -> dcol L0 = n -> drow U0 = n -> dcol U0 = n ->
  (exists r, pivoted_LU A L0 U0 pl0 = Ok r) \/ pivoted_LU A L0 U0 pl0 = ErrExn EXN_RANKDEF.
Proof.
  intros HA WL HrL HcL HrU HcU.
  destruct (pivoted_LU_total A L0 U0 pl0 n HA WL HrL HcL HrU HcU)
    as [(L' & U' & pl' & E' & _)|[E' _]].
  - left. eexists. exact E'.
  - right. exact E'.
Qed.
