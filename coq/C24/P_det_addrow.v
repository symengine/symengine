(* C24 obligation: adding a multiple of another row keeps the determinant *)
From SE Require Import C24.DenseModel C24.DenseSpec C24.DetTheory.
Local Open Scope N_scope.
Local Open Scope res_scope.
Theorem C24_det_addrow :
  forall n A a b c,
  a < N.of_nat n -> b < N.of_nat n -> a <> b -> det n (fm_addrow a b c A) = det n A.
Proof. exact det_addrow. Qed.
Print Assumptions C24_det_addrow.
