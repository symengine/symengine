(* C24 obligation: LDL without guard: right factorisation or a zero pivot visible on D's diagonal *)
From SE Require Import C24.DenseModel C24.DenseBase C24.DenseSpec C24.DenseLDL.
Local Open Scope N_scope.
Local Open Scope res_scope.
Theorem C24_LDL_dichotomy :
  forall A L0 D0 n,
  good A n n -> wf L0 -> drow L0 = n -> dcol L0 = n -> wf D0 -> drow D0 = n -> dcol D0 = n ->
  exists L D, LDL A L0 D0 = Ok (L, D) /\
    wf L /\ wf D /\ drow L = n /\ dcol L = n /\ drow D = n /\ dcol D = n /\
    ((fin_mat L /\ fin_mat D /\
      unit_diag n (fm_of L) /\ lower_tri n (fm_of L) /\
      lower_tri n (fm_of D) /\ upper_tri n (fm_of D) /\
      (forall j, j + 1 < n -> fm_of D j j <> 0%Qc) /\
      (forall i j, j <= i -> i < n ->
         fm_mul n (fm_of L) (fm_mul n (fm_of D) (fm_transpose (fm_of L))) i j = fm_of A i j))
     \/
     (exists b, b + 1 < n /\ entry D b b = x0)).
Proof. exact LDL_dichotomy. Qed.
Print Assumptions C24_LDL_dichotomy.
