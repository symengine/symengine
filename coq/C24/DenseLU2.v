(* C24 -- LU decomposition, part 2: the loops of the model (lu_split, lu_dot, the column
   sweeps, the scaling loop, the pivot search) on packed vectors. *)
From SE Require Import C24.DenseModel C24.DenseBase C24.DenseSpec C24.DenseOps C24.DenseGJ2 C24.DenseLU.
From Coq Require Import Lia ZifyBool ZifyNat ZifyN.
Local Open Scope N_scope.
Local Open Scope res_scope.

(* a packed n x n vector of rational numbers M is [repr m n n M] (DenseGJ2.v) *)

Lemma split_row1 l u n i El Eu :
  holds l n n El -> holds u n n Eu -> i < n ->
  exists l' u',
    for_range 0 i (fun j (st : list qx * list qx) =>
               let (lm, um) := st in
               do u <- rd um (i * n + j);
               do lm <- wr lm (i * n + j) u;
               do um <- wr um (i * n + j) x0;
               Ok (lm, um)) (l, u) = Ok (l', u') /\
    holds l' n n (fun a b => if (a =? i) && (b <? i) then Eu a b else El a b) /\
    holds u' n n (fun a b => if (a =? i) && (b <? i) then x0 else Eu a b).
Proof.
  intros Hl Hu Hi.
  pose (Q := fun (j : N) (st : list qx * list qx) =>
    holds (fst st) n n (fun a b => if (a =? i) && (b <? j) then Eu a b else El a b) /\
    holds (snd st) n n (fun a b => if (a =? i) && (b <? j) then x0 else Eu a b)).
  match goal with |- context [for_range 0 i ?body _] =>
    destruct (for_range_inv Q 0 i body (l, u)) as ([l' u'] & E & HQ) end.
  - lia.
  - split; cbn [fst snd]; [apply (holds_ext _ _ _ _ _ Hl) | apply (holds_ext _ _ _ _ _ Hu)];
      intros a b _ _; ffj_cases; reflexivity.
  - intros j [l1 u1] [_ Hj] (H1 & H2). cbn [fst snd] in *. cbv beta iota.
    rewrite (holds_rd u1 n n _ H2 i j) by lia. rewrite N.ltb_irrefl, andb_false_r. cbn [bind].
    destruct (holds_wr l1 n n _ (fun a b => if (a =? i) && (b <? j + 1) then Eu a b else El a b)
                i j (Eu i j) H1 Hi ltac:(lia)) as (l2 & E1 & H1').
    { intros a b _ _. ffj_cases; reflexivity. }
    rewrite E1. cbn [bind].
    destruct (holds_wr u1 n n _ (fun a b => if (a =? i) && (b <? j + 1) then x0 else Eu a b)
                i j x0 H2 Hi ltac:(lia)) as (u2 & E2 & H2').
    { intros a b _ _. ffj_cases; reflexivity. }
    rewrite E2. cbn [bind]. eexists; split; [reflexivity|]. split; assumption.
  - exists l', u'. split; [exact E | exact HQ].
Qed.

Lemma split_row3 l n i E :
  holds l n n E -> i < n ->
  exists l', for_range (i + 1) n (fun j lm => wr lm (i * n + j) x0) l = Ok l' /\
    holds l' n n (fun a b => if (a =? i) && (i <? b) then x0 else E a b).
Proof.
  intros Hl Hi.
  apply (holds_loop n n (fun t a b => if (a =? i) && (i <? b) && (b <? t) then x0 else E a b)
           E _ (i + 1) n _ l ltac:(lia) Hl).
  - intros a b _ _. ffj_cases; reflexivity.
  - intros t s Ht Hs. apply (holds_wr s n n _ _ i t x0 Hs Hi ltac:(lia)).
    intros a b _ _. ffj_cases; reflexivity.
  - intros a b _ Hb. ffj_cases; reflexivity.
Qed.

(* L takes the strict lower part and a unit diagonal, U keeps the upper part.
   No assumption on the entries (they may be zoo / nan). *)
Theorem lu_split_spec lm um n :
  lenN lm = n * n -> lenN um = n * n ->
  exists lm' um', lu_split lm um n = Ok (lm', um') /\ lenN lm' = n * n /\ lenN um' = n * n /\
    forall a b, a < n -> b < n ->
      ent lm' n a b = (if b <? a then ent um n a b else if b =? a then x1 else x0) /\
      ent um' n a b = (if b <? a then x0 else ent um n a b).
Proof.
  intros HLl HLu. unfold lu_split.
  pose (P := fun (i : N) (st : list qx * list qx) =>
    holds (fst st) n n (fun a b =>
      if a <? i then (if b <? a then ent um n a b else if b =? a then x1 else x0)
      else ent lm n a b) /\
    holds (snd st) n n (fun a b => if (a <? i) && (b <? a) then x0 else ent um n a b)).
  match goal with |- context [for_range 0 n ?body _] =>
    destruct (for_range_inv P 0 n body (lm, um)) as ([l' u'] & E & HP) end.
  - lia.
  - split; cbn [fst snd]; (split; [assumption|]); intros a b _ _; ffj_cases; reflexivity.
  - intros i [l u] [_ Hi] (H1 & H2). cbn [fst snd] in *. cbv beta.
    destruct (split_row1 l u n i _ _ H1 H2 Hi) as (l1 & u1 & E1 & Hl1 & Hu1).
    rewrite E1. cbn [bind]. cbv beta iota.
    destruct (holds_wr l1 n n _ _ i i x1 Hl1 Hi Hi (fun a b _ _ => eq_refl)) as (l2 & E2 & Hl2).
    rewrite E2. cbn [bind].
    destruct (split_row3 l2 n i _ Hl2 Hi) as (l3 & E3 & Hl3).
    rewrite E3. cbn [bind].
    eexists; split; [reflexivity|]. split; cbn [fst snd].
    + apply (holds_ext _ _ _ _ _ Hl3). intros a b _ _. ffj_cases; reflexivity.
    + apply (holds_ext _ _ _ _ _ Hu1). intros a b _ _. ffj_cases; reflexivity.
  - exists l', u'. split; [exact E|]. destruct HP as ((HL1 & HE1) & (HL2 & HE2)). cbn [fst snd] in *.
    split; [exact HL1|]. split; [exact HL2|]. intros a b Ha Hb.
    rewrite HE1, HE2 by assumption. destruct (N.ltb_spec a n); [|lia]. split; reflexivity.
Qed.

(* on rational entries: U[i,j] -= sum_{k<kmax} U[i,k] U[k,j], the positions read are not
   the one written *)
Lemma lu_dot_fin m n M i j kmax :
  repr m n n M -> i < n -> j < n -> kmax <= i -> kmax <= j ->
  exists m', lu_dot m n i j kmax = Ok m' /\
    repr m' n n (fm_set i j (M i j - sumN kmax (fun k => (M i k * M k j)%Qc))%Qc M).
Proof.
  intros HM Hi Hj Hki Hkj. unfold lu_dot.
  apply (repr_loop n n (fun t => fm_set i j (M i j - sumN t (fun k => (M i k * M k j)%Qc))%Qc M)
           M _ 0 kmax _ m ltac:(lia) HM).
  - intros a b _ _. unfold fm_set. rewrite sumN_0. ffj_cases; try reflexivity. ring.
  - intros t s [_ Ht] Hs.
    rewrite (repr_rd s n n _ Hs i j) by lia. cbn [bind].
    rewrite (repr_rd s n n _ Hs i t) by lia. cbn [bind].
    rewrite (repr_rd s n n _ Hs t j) by lia. cbn [bind].
    rewrite xmul_fin, xsub_fin. apply (repr_wr s n n _ _ i j _ Hs Hi Hj).
    intros a b _ _. unfold fm_set. rewrite sumN_succ. ffj_cases; try reflexivity. ring.
  - intros a b _ _. reflexivity.
Qed.

(* in words: on rational entries lu_dot succeeds, changes only position (i, j), and subtracts
   the dot product there *)
Lemma lu_dot_spec m n M i j kmax :
  lenN m = n * n -> (forall a b, a < n -> b < n -> ent m n a b = Fin (M a b)) ->
  i < n -> j < n -> kmax <= i -> kmax <= j ->
  exists m', lu_dot m n i j kmax = Ok m' /\ lenN m' = n * n /\
    ent m' n i j = Fin (M i j - sumN kmax (fun k => (M i k * M k j)%Qc))%Qc /\
    forall a b, a < n -> b < n -> (a <> i \/ b <> j) -> ent m' n a b = Fin (M a b).
Proof.
  intros HL HE Hi Hj Hki Hkj.
  destruct (lu_dot_fin m n M i j kmax (conj HL HE) Hi Hj Hki Hkj) as (m' & E & HL' & HE').
  unfold fm_set in HE'. exists m'. split; [exact E|]. split; [exact HL'|]. split.
  - rewrite HE' by assumption. now rewrite !N.eqb_refl.
  - intros a b Ha Hb Hc. rewrite HE' by assumption.
    destruct (N.eqb_spec a i), (N.eqb_spec b j); cbn [andb]; try reflexivity. lia.
Qed.

(* rows < t of column j have their dot product subtracted *)
Definition dots_part (n j t : N) (M M' : fm) : Prop :=
  (forall a b, a < n -> b < n -> (b <> j \/ t <= a) -> M' a b = M a b) /\
  (forall a, a < t -> (M' a j + dsum M' a j)%Qc = M a j).

Lemma dots_part_0 n j M : dots_part n j 0 M M.
Proof. split; [reflexivity | intros; lia]. Qed.

Lemma dots_part_n n j M M' : dots_part n j n M M' -> dots_rel n j M M'.
Proof.
  intros (H1 & H2). split; [|assumption]. intros a b Ha Hb Hne. apply H1; auto.
Qed.

Lemma dots_part_step n j t M M' :
  j < n -> t < n -> dots_part n j t M M' ->
  dots_part n j (t + 1) M
    (fun a b => if (a =? t) && (b =? j)
                then (M' t j - sumN (N.min t j) (fun k => (M' t k * M' k j)%Qc))%Qc
                else M' a b).
Proof.
  intros Hj Ht (H1 & H2).
  set (M2 := fun a b => if (a =? t) && (b =? j)
                then (M' t j - sumN (N.min t j) (fun k => (M' t k * M' k j)%Qc))%Qc
                else M' a b).
  assert (Same : forall a b, (a <> t \/ b <> j) -> M2 a b = M' a b).
  { intros a b Hab. unfold M2. destruct (N.eqb_spec a t), (N.eqb_spec b j); cbn [andb]; try reflexivity. lia. }
  split.
  - intros a b Ha Hb Hc. rewrite Same by lia. apply H1; (assumption || lia).
  - intros a Ha. destruct (N.eq_dec a t) as [->|Hne].
    + rewrite <- (H1 t j) by (try assumption; lia).
      replace (dsum M2 t j) with (dsum M' t j).
      * unfold M2 at 1. rewrite !N.eqb_refl. cbn [andb]. unfold dsum. ring.
      * apply dsum_ext; [reflexivity|]. intros k Hk. split; symmetry; apply Same; lia.
    + rewrite <- (H2 a) by lia. rewrite Same by lia. f_equal.
      apply dsum_ext; [reflexivity|]. intros k Hk. split; apply Same; lia.
Qed.

Lemma dots_loop n j lo hi (kf : N -> N) m M M0 :
  j < n -> lo <= hi -> hi <= n -> (forall i, lo <= i < hi -> kf i = N.min i j) ->
  repr m n n M -> dots_part n j lo M0 M ->
  exists m' M',
    for_range lo hi (fun i um => lu_dot um n i j (kf i)) m = Ok m' /\
    repr m' n n M' /\ dots_part n j hi M0 M'.
Proof.
  intros Hj Hlh Hhn Hkf HS HD.
  pose (P := fun (t : N) (m' : list qx) => exists M', repr m' n n M' /\ dots_part n j t M0 M').
  destruct (for_range_inv P lo hi (fun i um => lu_dot um n i j (kf i)) m) as (m' & E & M' & HP).
  - assumption.
  - exists M. split; assumption.
  - intros t s Ht (M1 & HS1 & HD1).
    destruct (lu_dot_fin s n M1 t j (kf t)) as (s' & E' & HS'); try assumption; try lia.
    + rewrite Hkf by assumption. lia.
    + rewrite Hkf by assumption. lia.
    + exists s'. split; [exact E'|]. eexists. split; [exact HS'|].
      rewrite Hkf by assumption. apply dots_part_step; (assumption || lia).
  - exists m', M'. split; [exact E | exact HP].
Qed.

Lemma scale_loop n j m M sc s :
  j < n -> repr m n n M -> (j + 1 < n -> sc = Fin s) ->
  exists m',
    for_range (j + 1) n (fun i um =>
      do uij <- rd um (i * n + j);
      wr um (i * n + j) (xmul uij sc)) m = Ok m' /\
    repr m' n n (fun a b => if (j <? a) && (b =? j) then (M a j * s)%Qc else M a b).
Proof.
  intros Hj HM Hsc.
  apply (repr_loop n n
           (fun t a b => if (j <? a) && (a <? t) && (b =? j) then (M a j * s)%Qc else M a b)
           M _ (j + 1) n _ m ltac:(lia) HM).
  - intros a b _ _. ffj_cases; reflexivity.
  - intros t u Ht Hu. rewrite Hsc by lia.
    rewrite (repr_rd u n n _ Hu t j) by lia. cbn [bind]. rewrite xmul_fin.
    apply (repr_wr u n n _ _ t j _ Hu); try lia.
    intros a b _ _. unfold fm_set. ffj_cases; reflexivity.
  - intros a b Ha _. ffj_cases; reflexivity.
Qed.

(* the second sweep in the pivoted variant: subtract the dot products in rows >= j and
   remember the first row with a non-zero entry *)
Lemma pivot_dots_loop n j m M M0 :
  j < n -> repr m n n M -> dots_part n j j M0 M ->
  exists m' M' piv,
    for_range j n (fun i (st2 : list qx * option N) =>
                let (m, piv) := st2 in
                do m <- lu_dot m n i j j;
                do e <- rd m (i * n + j);
                Ok (m, match piv with
                       | None => if x_is_zero e then None else Some i
                       | Some p => Some p
                       end)) (m, None) = Ok (m', piv) /\
    repr m' n n M' /\ dots_part n j n M0 M' /\
    match piv with
    | Some p => j <= p < n /\ M' p j <> 0%Qc
    | None => forall i, j <= i < n -> M' i j = 0%Qc
    end.
Proof.
  intros Hj HS HD.
  pose (P := fun (t : N) (st : list qx * option N) =>
    exists M', repr (fst st) n n M' /\ dots_part n j t M0 M' /\
      match snd st with
      | Some p => j <= p < t /\ M' p j <> 0%Qc
      | None => forall i, j <= i < t -> M' i j = 0%Qc
      end).
  match goal with |- context [for_range j n ?body _] =>
    destruct (for_range_inv P j n body (m, None)) as ([m' piv] & E & M' & HP) end.
  - lia.
  - exists M. cbn [fst snd]. split; [|split]; [assumption | assumption | intros; lia].
  - intros t [s piv] Ht (M1 & HS1 & HD1 & HP1). cbn [fst snd] in *. cbv beta iota.
    destruct (lu_dot_fin s n M1 t j j) as (s' & E' & HS'); try assumption; try lia.
    rewrite E'. cbn [bind].
    rewrite (repr_rd s' n n _ HS' t j) by lia. cbn [bind].
    unfold fm_set at 1. rewrite !N.eqb_refl. cbn [andb].
    pose proof (dots_part_step n j t M0 M1 Hj ltac:(lia) HD1) as HD2.
    replace (N.min t j) with j in HD2 by lia.
    set (M2 := fun a b => if (a =? t) && (b =? j)
                then (M1 t j - sumN j (fun k => (M1 t k * M1 k j)%Qc))%Qc else M1 a b) in *.
    assert (Old : forall a, a <> t -> M2 a j = M1 a j).
    { intros a Ha. unfold M2. destruct (N.eqb_spec a t); [lia | reflexivity]. }
    assert (New : M2 t j = (M1 t j - sumN j (fun k => (M1 t k * M1 k j)%Qc))%Qc).
    { unfold M2. now rewrite !N.eqb_refl. }
    eexists; split; [reflexivity|]. unfold P. exists M2. cbn [fst snd].
    split; [|split]; [assumption | assumption |].
    destruct piv as [p|].
    + destruct HP1 as (Hp & Hnz). split; [lia|]. rewrite Old by lia. assumption.
    + rewrite <- New.
      destruct (x_is_zero (Fin (M2 t j))) eqn:Ez.
      * apply x_is_zero_fin in Ez. intros i Hi. destruct (N.eq_dec i t) as [->|Hne]; [assumption|].
        rewrite Old by assumption. apply HP1. lia.
      * split; [lia|]. intros Hz. rewrite Hz in Ez. cbn in Ez. discriminate.
  - exists m', M', piv. cbn [fst snd] in HP. split; [exact E | exact HP].
Qed.
