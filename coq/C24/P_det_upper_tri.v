(* C24 obligation: determinant of an upper triangular matrix *)
From SE Require Import C24.DenseModel C24.DenseSpec C24.DetTheory.
Local Open Scope N_scope.
Local Open Scope res_scope.
Theorem C24_det_upper_tri :
  forall n,
  forall U, upper_tri (N.of_nat n) U -> det n U = diag_prod n U.
Proof. exact det_upper_tri. Qed.
Print Assumptions C24_det_upper_tri.
