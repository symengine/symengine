(* C24 -- basic lemmas about the building blocks of the model: checked vectors, loops,
   flat index arithmetic, the arithmetic of entries on rational operands. *)
From SE Require Import C24.DenseModel.
From Coq Require Import Lia ZifyBool ZifyNat ZifyN.
Local Open Scope N_scope.
Local Open Scope res_scope.

(* total read with default zero: the mathematical view of a vector *)
Definition nthx (l : list qx) (k : N) : qx := nth (N.to_nat k) l x0.

Lemma lenN_lt_iff {A} (l : list A) k : k < lenN l <-> (N.to_nat k < length l)%nat.
Proof. unfold lenN. lia. Qed.

Lemma rd_ok_gen {A} (l : list A) k d : k < lenN l -> rd l k = Ok (nth (N.to_nat k) l d).
Proof.
  intros H. unfold rd. apply lenN_lt_iff in H.
  destruct (nth_error l (N.to_nat k)) eqn:E.
  - f_equal. symmetry. now apply nth_error_nth.
  - apply nth_error_None in E. lia.
Qed.

Lemma rd_ok (l : list qx) k : k < lenN l -> rd l k = Ok (nthx l k).
Proof. apply rd_ok_gen. Qed.

Lemma rd_oob {A} (l : list A) k : lenN l <= k -> rd l k = ErrOOB k (lenN l).
Proof.
  intros H. unfold rd.
  destruct (nth_error l (N.to_nat k)) eqn:E; [|reflexivity].
  assert (N.to_nat k < length l)%nat by (apply nth_error_Some; congruence).
  unfold lenN in H. lia.
Qed.

Lemma rd_inv {A} (l : list A) k v : rd l k = Ok v -> k < lenN l.
Proof.
  intros E. destruct (N.ltb_spec k (lenN l)) as [Hlt|Hge]; [assumption|].
  rewrite rd_oob in E by assumption. discriminate.
Qed.

Lemma upd_length {A} (l : list A) n v : length (upd l n v) = length l.
Proof. revert n; induction l as [|x r IH]; intros [|n]; cbn; auto. Qed.

Lemma lenN_upd {A} (l : list A) n v : lenN (upd l n v) = lenN l.
Proof. unfold lenN. now rewrite upd_length. Qed.

Lemma nth_upd_same {A} (l : list A) n v d : (n < length l)%nat -> nth n (upd l n v) d = v.
Proof. revert n; induction l as [|x r IH]; intros [|n] H; cbn in *; try lia; auto. apply IH; lia. Qed.

Lemma nth_upd_other {A} (l : list A) n m v d : n <> m -> nth m (upd l n v) d = nth m l d.
Proof.
  revert n m; induction l as [|x r IH]; intros [|n] [|m] H; cbn; auto; try congruence.
Qed.

Lemma wr_ok {A} (l : list A) k v : k < lenN l -> wr l k v = Ok (upd l (N.to_nat k) v).
Proof. intros H. unfold wr. apply N.ltb_lt in H. now rewrite H. Qed.

Lemma wr_oob {A} (l : list A) k v : lenN l <= k -> wr l k v = ErrOOB k (lenN l).
Proof. intros H. unfold wr. apply N.ltb_ge in H. now rewrite H. Qed.

Lemma wr_inv {A} (l l' : list A) k v : wr l k v = Ok l' -> k < lenN l /\ l' = upd l (N.to_nat k) v.
Proof.
  unfold wr. destruct (N.ltb_spec k (lenN l)) as [Hlt|Hge]; intros E; inversion E; auto.
Qed.

Lemma nthx_upd (l : list qx) k k' v :
  k < lenN l -> nthx (upd l (N.to_nat k) v) k' = if k' =? k then v else nthx l k'.
Proof.
  intros H. unfold nthx. destruct (N.eqb_spec k' k).
  - subst. apply nth_upd_same. now apply lenN_lt_iff.
  - apply nth_upd_other. lia.
Qed.

Lemma nthx_upd_same (l : list qx) k v : k < lenN l -> nthx (upd l (N.to_nat k) v) k = v.
Proof. intros H. rewrite nthx_upd by assumption. now rewrite N.eqb_refl. Qed.

Lemma nthx_upd_other (l : list qx) k k' v : k' <> k -> nthx (upd l (N.to_nat k) v) k' = nthx l k'.
Proof. intros H. unfold nthx. apply nth_upd_other. lia. Qed.

Lemma nthx_ext (l l' : list qx) :
  length l = length l' -> (forall k, k < lenN l -> nthx l k = nthx l' k) -> l = l'.
Proof.
  intros HL H. apply nth_ext with (d := x0) (d' := x0); [assumption|].
  intros n Hn. specialize (H (N.of_nat n)). unfold nthx, lenN in H.
  rewrite Nat2N.id in H. apply H. lia.
Qed.

Lemma nthx_repeat n k : nthx (repeat x0 n) k = x0.
Proof.
  unfold nthx. apply nth_repeat.
Qed.

Lemma lenN_repeat {A} (a : A) n : lenN (repeat a n) = N.of_nat n.
Proof. unfold lenN. now rewrite repeat_length. Qed.

Lemma bind_ok {A B} (r : res A) (f : A -> res B) b :
  bind r f = Ok b -> exists a, r = Ok a /\ f a = Ok b.
Proof. destruct r; cbn; intros H; try discriminate. eauto. Qed.

(* sequencing: a first step that establishes P, a continuation that needs only P *)
Lemma bind_ex {A B} (x : res A) (f : A -> res B) (P : A -> Prop) (Q : B -> Prop) :
  (exists a, x = Ok a /\ P a) -> (forall a, P a -> exists b, f a = Ok b /\ Q b) ->
  exists b, bind x f = Ok b /\ Q b.
Proof. intros (a & -> & Ha) H. exact (H a Ha). Qed.

Lemma for_up_S {St} n i (body : N -> St -> res St) s :
  for_up (S n) i body s = bind (body i s) (fun s' => for_up n (i + 1) body s').
Proof. reflexivity. Qed.

(* total correctness by invariant *)
Lemma for_up_inv {St} (P : N -> St -> Prop) n i (body : N -> St -> res St) s :
  P i s ->
  (forall k s, i <= k < i + N.of_nat n -> P k s -> exists s', body k s = Ok s' /\ P (k + 1) s') ->
  exists s', for_up n i body s = Ok s' /\ P (i + N.of_nat n) s'.
Proof.
  revert i s. induction n as [|n IH]; intros i s H0 Hstep.
  - exists s. split; [reflexivity|]. now replace (i + N.of_nat 0) with i by lia.
  - destruct (Hstep i s ltac:(lia) H0) as (s1 & E1 & P1).
    destruct (IH (i + 1) s1 P1) as (s2 & E2 & P2).
    { intros k s' Hk. apply Hstep. lia. }
    exists s2. split.
    + rewrite for_up_S, E1. exact E2.
    + now replace (i + N.of_nat (S n)) with (i + 1 + N.of_nat n) by lia.
Qed.

Lemma for_range_inv {St} (P : N -> St -> Prop) a b (body : N -> St -> res St) s :
  a <= b -> P a s ->
  (forall k s, a <= k < b -> P k s -> exists s', body k s = Ok s' /\ P (k + 1) s') ->
  exists s', for_range a b body s = Ok s' /\ P b s'.
Proof.
  intros Hab H0 Hstep. unfold for_range.
  destruct (for_up_inv P (N.to_nat (b - a)) a body s H0) as (s' & E & Hp).
  - intros k s' Hk. apply Hstep. lia.
  - exists s'. split; [assumption|]. now replace b with (a + N.of_nat (N.to_nat (b - a))) by lia.
Qed.

Lemma for_range_nop {St} a b (body : N -> St -> res St) s : b <= a -> for_range a b body s = Ok s.
Proof. intros H. unfold for_range. replace (N.to_nat (b - a)) with O by lia. reflexivity. Qed.

(* the downward loop runs k = n-1 .. 0: P (k + 1) holds before iteration k, P 0 at the end *)
Lemma for_down_inv {St} (P : N -> St -> Prop) n (body : N -> St -> res St) s :
  P (N.of_nat n) s ->
  (forall k s, k < N.of_nat n -> P (k + 1) s -> exists s', body k s = Ok s' /\ P k s') ->
  exists s', for_down n body s = Ok s' /\ P 0 s'.
Proof.
  revert s. induction n as [|n IH]; intros s H0 Hstep.
  - exists s. split; [reflexivity | exact H0].
  - destruct (Hstep (N.of_nat n) s ltac:(lia)) as (s1 & E1 & P1).
    { now replace (N.of_nat n + 1) with (N.of_nat (S n)) by lia. }
    destruct (IH s1 P1) as (s2 & E2 & P2).
    { intros k s' Hk. apply Hstep. lia. }
    exists s2. split; [|assumption]. cbn [for_down]. rewrite E1. exact E2.
Qed.

(* partial correctness: what an Ok result of a loop satisfies *)
Lemma for_up_inv_ok {St} (P : N -> St -> Prop) n i (body : N -> St -> res St) s r :
  for_up n i body s = Ok r ->
  P i s ->
  (forall k s s', i <= k < i + N.of_nat n -> P k s -> body k s = Ok s' -> P (k + 1) s') ->
  P (i + N.of_nat n) r.
Proof.
  revert i s. induction n as [|n IH]; intros i s E H0 Hstep.
  - cbn in E. inversion E; subst. now replace (i + N.of_nat 0) with i by lia.
  - rewrite for_up_S in E. apply bind_ok in E. destruct E as (s1 & E1 & E2).
    replace (i + N.of_nat (S n)) with (i + 1 + N.of_nat n) by lia.
    apply (IH (i + 1) s1 E2).
    + apply (Hstep i s s1); [lia | assumption | assumption].
    + intros k s' s'' Hk. apply Hstep. lia.
Qed.

Lemma for_range_inv_ok {St} (P : N -> St -> Prop) a b (body : N -> St -> res St) s r :
  a <= b -> for_range a b body s = Ok r -> P a s ->
  (forall k s s', a <= k < b -> P k s -> body k s = Ok s' -> P (k + 1) s') ->
  P b r.
Proof.
  intros Hab E H0 Hstep. unfold for_range in E.
  replace b with (a + N.of_nat (N.to_nat (b - a))) by lia.
  apply (for_up_inv_ok P _ _ _ _ _ E H0). intros k s' s'' Hk. apply Hstep. lia.
Qed.

Lemma idx_lt row col i j : i < row -> j < col -> i * col + j < row * col.
Proof. intros. nia. Qed.

Lemma idx_inj col i j i' j' : j < col -> j' < col -> i * col + j = i' * col + j' -> i = i' /\ j = j'.
Proof.
  intros Hj Hj' E.
  assert (i = i').
  { destruct (N.lt_trichotomy i i') as [H|[H|H]]; [exfalso; nia | assumption | exfalso; nia]. }
  subst. split; [reflexivity | lia].
Qed.

Lemma idx_neq col i j i' j' : j < col -> j' < col -> (i <> i' \/ j <> j') -> i * col + j <> i' * col + j'.
Proof. intros Hj Hj' H E. apply idx_inj in E; try assumption. lia. Qed.

(* every index below row * col is some i * col + j *)
Lemma flat_ind (P : N -> Prop) row col :
  (forall i j, i < row -> j < col -> P (i * col + j)) -> forall k, k < row * col -> P k.
Proof.
  intros H k Hk. assert (Hc : 0 < col) by (destruct col; lia).
  replace k with (k / col * col + k mod col) by (rewrite N.mul_comm; symmetry; apply N.div_mod; lia).
  apply H; [apply N.div_lt_upper_bound; lia | apply N.mod_lt; lia].
Qed.

(* entry (i, j) of a row-major vector with `col` columns *)
Definition ent (m : list qx) (col i j : N) : qx := nthx m (i * col + j).

Lemma ent_upd (m : list qx) row col i j i' j' v :
  lenN m = row * col -> i < row -> j < col -> j' < col ->
  ent (upd m (N.to_nat (i * col + j)) v) col i' j' =
  if (i' =? i) && (j' =? j) then v else ent m col i' j'.
Proof.
  intros HL Hi Hj Hj'. unfold ent. rewrite nthx_upd by (rewrite HL; now apply idx_lt).
  destruct (N.eqb_spec i' i), (N.eqb_spec j' j); cbn; subst.
  - now rewrite N.eqb_refl.
  - destruct (N.eqb_spec (i * col + j') (i * col + j)); [lia | reflexivity].
  - destruct (N.eqb_spec (i' * col + j) (i * col + j)); [|reflexivity].
    exfalso. apply idx_inj in e; [lia| |]; assumption.
  - destruct (N.eqb_spec (i' * col + j') (i * col + j)); [|reflexivity].
    exfalso. apply idx_inj in e; [lia| |]; assumption.
Qed.

Definition is_fin (a : qx) : Prop := match a with Fin _ => True | _ => False end.
(* value of an entry (0 for zoo / nan) *)
Definition qv (a : qx) : Qc := match a with Fin q => q | _ => 0%Qc end.

Lemma is_fin_qv a : is_fin a -> a = Fin (qv a).
Proof. destruct a; cbn; tauto. Qed.

Lemma qc0_eq : qc0 = 0%Qc. Proof. reflexivity. Qed.
Lemma qc1_eq : qc1 = 1%Qc. Proof. reflexivity. Qed.
Lemma qcm1_eq : qcm1 = (- (1))%Qc.
Proof. apply Qc_is_canon. reflexivity. Qed.

Lemma qc_is_zero_iff q : qc_is_zero q = true <-> q = 0%Qc.
Proof.
  unfold qc_is_zero. rewrite Z.eqb_eq. split.
  - intros H. apply Qc_is_canon. destruct q as [[n d] c]. cbn in *. subst. reflexivity.
  - intros ->. reflexivity.
Qed.

Lemma qc_is_zero_false q : qc_is_zero q = false <-> q <> 0%Qc.
Proof.
  rewrite <- qc_is_zero_iff. destruct (qc_is_zero q); split; congruence.
Qed.

Lemma x_is_zero_fin q : x_is_zero (Fin q) = true <-> q = 0%Qc.
Proof. apply qc_is_zero_iff. Qed.

Lemma x_is_zero_true a : x_is_zero a = true <-> a = x0.
Proof.
  destruct a; cbn; split; try discriminate.
  - intros H. apply qc_is_zero_iff in H. now subst.
  - intros H. inversion H. reflexivity.
Qed.

Lemma qc_eqb_eq a b : qc_eqb a b = true <-> a = b.
Proof.
  unfold qc_eqb. rewrite andb_true_iff, Z.eqb_eq, Pos.eqb_eq. split.
  - intros [H1 H2]. apply Qc_is_canon. destruct a as [[n d] c], b as [[n' d'] c']. cbn in *. now subst.
  - intros ->. auto.
Qed.

Lemma xadd_fin a b : xadd (Fin a) (Fin b) = Fin (a + b). Proof. reflexivity. Qed.
Lemma xmul_fin a b : xmul (Fin a) (Fin b) = Fin (a * b). Proof. reflexivity. Qed.
Lemma xsub_fin a b : xsub (Fin a) (Fin b) = Fin (a - b).
Proof. unfold xsub, xm1. cbn [xmul xadd]. f_equal; try (rewrite qcm1_eq; ring). Qed.
Lemma xdiv_fin a b : b <> 0%Qc -> xdiv (Fin a) (Fin b) = Fin (a / b).
Proof.
  intros H. unfold xdiv. cbn [x_is_zero]. apply qc_is_zero_false in H. rewrite H.
  reflexivity.
Qed.
Lemma xdiv_one_fin b : b <> 0%Qc -> xdiv x1 (Fin b) = Fin (/ b).
Proof. intros H. unfold x1. rewrite xdiv_fin by assumption. f_equal; try (rewrite qc1_eq; unfold Qcdiv; ring). Qed.
Lemma xpow2_fin a : xpow2 (Fin a) = Fin (a * a). Proof. reflexivity. Qed.
Lemma xmul_m1_fin a : xmul xm1 (Fin a) = Fin (- a).
Proof. unfold xm1. cbn [xmul]. f_equal; try (rewrite qcm1_eq; ring). Qed.

Lemma x0_fin : x0 = Fin 0%Qc. Proof. reflexivity. Qed.
Lemma x1_fin : x1 = Fin 1%Qc. Proof. reflexivity. Qed.

#[export] Hint Rewrite xadd_fin xmul_fin xsub_fin xpow2_fin xmul_m1_fin : xfin.

(* all entries of a vector are rational numbers *)
Definition fin_vec (m : list qx) : Prop := forall k, k < lenN m -> is_fin (nthx m k).

Lemma fin_vec_upd m k v : fin_vec m -> is_fin v -> fin_vec (upd m (N.to_nat k) v).
Proof.
  intros H Hv k' Hk'. rewrite lenN_upd in Hk'.
  destruct (N.ltb_spec k (lenN m)).
  - rewrite nthx_upd by assumption. destruct (k' =? k); auto.
  - rewrite nthx_upd_other by lia. auto.
Qed.

Lemma fin_vec_repeat n : fin_vec (repeat x0 n).
Proof. intros k _. rewrite nthx_repeat. exact I. Qed.

Lemma fin_vec_of_ent m row col :
  lenN m = row * col -> (forall r c, r < row -> c < col -> is_fin (ent m col r c)) -> fin_vec m.
Proof. intros HL H k. rewrite HL. revert k. apply flat_ind. exact H. Qed.

(* storage has the size the dimensions say *)
Definition wf (M : dmat) : Prop := lenN (dm M) = drow M * dcol M.
Definition fin_mat (M : dmat) : Prop := fin_vec (dm M).
(* entry (i, j) *)
Definition entry (M : dmat) (i j : N) : qx := ent (dm M) (dcol M) i j.
(* its value as a rational *)
Definition val (M : dmat) (i j : N) : Qc := qv (entry M i j).

Lemma wf_mzero r c : wf (mzero r c).
Proof. unfold wf, mzero. cbn. rewrite lenN_repeat. lia. Qed.
Lemma fin_mzero r c : fin_mat (mzero r c).
Proof. apply fin_vec_repeat. Qed.
Lemma entry_mzero r c i j : entry (mzero r c) i j = x0.
Proof. unfold entry, ent, mzero. cbn. apply nthx_repeat. Qed.

Lemma fin_entry M i j : wf M -> fin_mat M -> i < drow M -> j < dcol M -> entry M i j = Fin (val M i j).
Proof.
  intros Hw Hf Hi Hj. apply is_fin_qv. apply Hf. rewrite Hw. now apply idx_lt.
Qed.

(* two matrices of the same shape with the same entries are equal *)
Lemma dmat_ext A B :
  wf A -> wf B -> drow A = drow B -> dcol A = dcol B ->
  (forall i j, i < drow A -> j < dcol A -> entry A i j = entry B i j) -> A = B.
Proof.
  intros WA WB Hr Hc H. destruct A as [ra ca ma], B as [rb cb mb]. cbn in *. subst rb cb.
  f_equal. unfold wf in *. cbn in *. apply nthx_ext.
  - unfold lenN in *. lia.
  - rewrite WA. apply flat_ind. exact H.
Qed.
