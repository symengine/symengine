(* C24 obligation: det_bareis = cofactor determinant, every order n >= 1 (closed formulas, triangular shortcut, Bareiss with row exchanges) *)
From SE Require Import C24.DenseModel C24.DenseSpec C24.DenseDet3.
Local Open Scope N_scope.
Local Open Scope res_scope.
Theorem C24_det_bareis_correct :
  forall A n,
  good A n n -> 1 <= n -> det_bareis A = Ok (Fin (det (N.to_nat n) (fm_of A))).
Proof. exact det_bareis_correct. Qed.
Print Assumptions C24_det_bareis_correct.
