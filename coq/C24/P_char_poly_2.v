(* C24 obligation: char_poly order 2 *)
From SE Require Import C24.DenseModel C24.DenseBase C24.DenseSpec C24.DenseBerk.
Local Open Scope N_scope.
Local Open Scope res_scope.
Theorem C24_char_poly_2 :
  forall A,
  good A 2 2 ->
  exists p, char_poly A = Ok p /\ drow p = 3 /\ dcol p = 1 /\ Forall is_fin (dm p) /\
    forall x, peval (map qv (dm p)) x = det 2 (xI_minus (fm_of A) x).
Proof. exact (char_poly_small 2 eq_refl). Qed.
Print Assumptions C24_char_poly_2.
