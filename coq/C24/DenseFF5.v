(* C24 -- the unpivoted fraction-free routines, part 5: the guards as boolean functions of
   the input (computed by replaying the factorisation / the elimination on A), the guarded
   statements in that form, and examples. *)
From SE Require Import C24.DenseModel C24.DenseBase C24.DenseSpec C24.DenseGJ2 C24.DenseGE C24.DenseGuards C24.DenseFF C24.DenseFF2 C24.DenseFF3 C24.DenseFF4.
From Coq Require Import Lia ZifyBool ZifyNat ZifyN.
Local Open Scope N_scope.
Local Open Scope res_scope.

(* the diagonal entries 0 .. k-1 of G are non-zero *)
Definition diag_prefix_nonzero_b (G : dmat) (k : N) : bool :=
  forallb (fun j => negb (x_is_zero (entry G j j))) (rangeN k).

(* the same test as diag_nonzero_b, under the name the guards below use *)
Lemma diag_prefix_nonzero_b_spec G k :
  diag_prefix_nonzero_b G k = true <-> forall j, j < k -> x_is_zero (entry G j j) = false.
Proof. exact (diag_nonzero_b_spec G k). Qed.

(* fraction_free_LU on A meets no zero pivot, and the last diagonal entry (by which the
   solvers divide) is not zero either *)
Definition guard_fflu (A : dmat) : bool :=
  match fraction_free_LU A (mzero (drow A) (dcol A)) with
  | Ok LU => diag_prefix_nonzero_b LU (drow A)
  | _ => false
  end.

(* fraction_free_gaussian_elimination on A meets no zero pivot: the diagonal entries that
   have a row and a column after them *)
Definition guard_ffge (A : dmat) : bool :=
  match fraction_free_gaussian_elimination A (mzero (drow A) (dcol A)) with
  | Ok G => diag_prefix_nonzero_b G (N.min (drow A) (dcol A) - 1)
  | _ => false
  end.

(* the same with the whole diagonal, for the solver *)
Definition guard_ffge_solve (A : dmat) : bool :=
  match fraction_free_gaussian_elimination A (mzero (drow A) (dcol A)) with
  | Ok G => diag_prefix_nonzero_b G (drow A)
  | _ => false
  end.

Theorem fflu_solve_guarded_b A b x n s :
  good A n n -> good b n s -> 0 < n -> drow x = n -> dcol x = s ->
  guard_fflu A = true ->
  exists x', fraction_free_LU_solve A b x = Ok x' /\ good x' n s /\
    fm_eq n s (fm_mul n (fm_of A) (fm_of x')) (fm_of b).
Proof.
  intros GA Gb Hn Hxr Hxc HG. pose proof GA as (_ & _ & HrA & HcA).
  unfold guard_fflu in HG. rewrite HrA, HcA in HG.
  destruct (fraction_free_LU A (mzero n n)) as [LU| | |] eqn:E; try discriminate.
  apply (fflu_solve_spec A b x n s LU); try assumption.
  now apply diag_prefix_nonzero_b_spec.
Qed.

Theorem inverse_fflu_guarded_b A B n :
  good A n n -> 0 < n -> wf B -> drow B = n -> dcol B = n ->
  guard_fflu A = true ->
  exists B', inverse_fraction_free_LU A B = Ok B' /\ good B' n n /\
    fm_eq n n (fm_mul n (fm_of A) (fm_of B')) fm_id.
Proof.
  intros GA Hn WB HBr HBc HG. pose proof GA as (_ & _ & HrA & HcA).
  unfold guard_fflu in HG. rewrite HrA, HcA in HG.
  destruct (fraction_free_LU A (mzero n n)) as [LU| | |] eqn:E; try discriminate.
  apply (inverse_fflu_spec A B n LU); try assumption.
  now apply diag_prefix_nonzero_b_spec.
Qed.

Theorem ffge_solve_guarded_b A b x n s :
  good A n n -> good b n s -> 0 < n -> wf x -> drow x = n -> dcol x = s ->
  guard_ffge_solve A = true ->
  exists x', fraction_free_gaussian_elimination_solve A b x = Ok x' /\ good x' n s /\
    fm_eq n s (fm_mul n (fm_of A) (fm_of x')) (fm_of b).
Proof.
  intros GA Gb Hn Wx Hxr Hxc HG. pose proof GA as (_ & _ & HrA & HcA).
  unfold guard_ffge_solve in HG. rewrite HrA, HcA in HG.
  destruct (fraction_free_gaussian_elimination A (mzero n n)) as [G| | |] eqn:E; try discriminate.
  apply (ffge_solve_spec A b x n s G); try assumption.
  now apply diag_prefix_nonzero_b_spec.
Qed.

(* the diagonal of the result does not depend on the matrix record given for the result *)
Lemma ffge_entries_indep A B1 B2 B1' B2' r c :
  good A r c -> 0 < c -> dcol B1 = c -> dcol B2 = c ->
  fraction_free_gaussian_elimination A B1 = Ok B1' ->
  fraction_free_gaussian_elimination A B2 = Ok B2' ->
  forall a b, a < r -> b < c -> entry B1' a b = entry B2' a b.
Proof.
  intros GA Hc0 H1 H2 E1 E2 a b Ha Hb.
  pose proof (good_repr A r c GA) as [HLA _]. pose proof GA as (_ & _ & HrA & HcA).
  destruct (ffge_run A B1 r c HLA HrA HcA Hc0) as (m1 & E1' & [_ Hm1]).
  destruct (ffge_run A B2 r c HLA HrA HcA Hc0) as (m2 & E2' & [_ Hm2]).
  rewrite E1 in E1'. rewrite E2 in E2'. inversion E1'; inversion E2'; subst B1' B2'.
  unfold entry, setm. cbn [dm dcol]. rewrite H1, H2. now rewrite Hm1, Hm2.
Qed.

Theorem ffge_guarded_b A B r c :
  good A r c -> 0 < c -> drow B = r -> dcol B = c ->
  guard_ffge A = true ->
  exists B', fraction_free_gaussian_elimination A B = Ok B' /\ good B' r c /\
    row_equiv r c (fm_of A) (fm_of B') /\
    (forall j k, k < j -> k < c - 1 -> j < r -> fm_of B' j k = 0%Qc).
Proof.
  intros GA Hc0 HBr HBc HG. pose proof GA as (_ & _ & HrA & HcA).
  unfold guard_ffge in HG. rewrite HrA, HcA in HG.
  destruct (fraction_free_gaussian_elimination A (mzero r c)) as [G| | |] eqn:E; try discriminate.
  destruct (ffge_spec A B r c GA Hc0 HBr HBc) as (B' & E' & H).
  exists B'. split; [exact E'|].
  destruct H as (H1 & H2 & H3 & _).
  - intros i Hi1 Hi2.
    rewrite (ffge_entries_indep A B (mzero r c) B' G r c GA Hc0 HBc eq_refl E' E i i) by lia.
    apply (proj1 (diag_prefix_nonzero_b_spec G (N.min r c - 1)) HG). lia.
  - split; [|split]; assumption.
Qed.

(* the result of a solver is the expected matrix *)
Definition res_is (r : res dmat) (e : dmat) : bool :=
  match r with
  | Ok x => (drow x =? drow e) && (dcol x =? dcol e) &&
            (length (dm x) =? length (dm e))%nat &&
            forallb (fun p => x_eqb (fst p) (snd p)) (combine (dm x) (dm e))
  | _ => false
  end.

Definition exA : dmat := zmat 3 3 [2; 1; -1;  -3; -1; 2;  -2; 1; 2]%Z.
Definition exb : dmat := zmat 3 1 [8; -11; -3]%Z.

(* the guards hold on a regular matrix whose leading minors are not zero *)
Example guard_fflu_ex : guard_fflu exA = true.
Proof. vm_compute. reflexivity. Qed.
Example guard_ffge_ex : guard_ffge exA = true /\ guard_ffge_solve exA = true.
Proof. vm_compute. split; reflexivity. Qed.

(* and the solvers find the solution (2, 3, -1) *)
Example fflu_solve_ex :
  res_is (fraction_free_LU_solve exA exb (mzero 3 1)) (zmat 3 1 [2; 3; -1]%Z) = true.
Proof. vm_compute. reflexivity. Qed.
Example ffge_solve_ex :
  res_is (fraction_free_gaussian_elimination_solve exA exb (mzero 3 1)) (zmat 3 1 [2; 3; -1]%Z) = true.
Proof. vm_compute. reflexivity. Qed.

(* a regular matrix with a zero in the corner: the guards fail, and the unpivoted solver
   returns a matrix that is not made of numbers (it divides by the zero pivot) *)
Definition exS : dmat := zmat 2 2 [0; 1;  1; 0]%Z.
Example guard_fflu_exS : guard_fflu exS = false /\ guard_ffge_solve exS = false.
Proof. vm_compute. split; reflexivity. Qed.

Definition all_numbers (r : res dmat) : bool :=
  match r with
  | Ok x => forallb (fun e => match e with Fin _ => true | _ => false end) (dm x)
  | _ => false
  end.
Example fflu_solve_exS :
  all_numbers (fraction_free_LU_solve exS (zmat 2 1 [1; 1]%Z) (mzero 2 1)) = false.
Proof. vm_compute. reflexivity. Qed.
