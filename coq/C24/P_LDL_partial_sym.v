(* C24 obligation: LDL of a symmetric matrix under the guard: L unit lower, D diagonal, L*D*L^T = A *)
From SE Require Import C24.DenseModel C24.DenseBase C24.DenseSpec C24.DenseLDL.
Local Open Scope N_scope.
Local Open Scope res_scope.
Theorem C24_LDL_partial_sym :
  forall A L0 D0 n L D,
  LDL A L0 D0 = Ok (L, D) ->
  good A n n -> wf L0 -> drow L0 = n -> dcol L0 = n -> wf D0 -> drow D0 = n -> dcol D0 = n ->
  (forall j, j + 1 < n -> x_is_zero (entry D j j) = false) ->
  (forall i j, i < n -> j < n -> fm_of A i j = fm_of A j i) ->
  good L n n /\ good D n n /\
  unit_diag n (fm_of L) /\ lower_tri n (fm_of L) /\
  lower_tri n (fm_of D) /\ upper_tri n (fm_of D) /\
  fm_eq n n (fm_mul n (fm_of L) (fm_mul n (fm_of D) (fm_transpose (fm_of L)))) (fm_of A).
Proof. exact LDL_partial_sym. Qed.
Print Assumptions C24_LDL_partial_sym.
