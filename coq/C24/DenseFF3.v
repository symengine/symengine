(* C24 -- the unpivoted fraction-free routines, part 3: inverse_fraction_free_LU (column by
   column with the packed matrix of fraction_free_LU). *)
From SE Require Import C24.DenseModel C24.DenseBase C24.DenseSpec C24.DenseOps C24.DenseGJ2 C24.DenseSolve C24.DenseFF2.
From Coq Require Import Lia ZifyBool ZifyNat ZifyN.
Local Open Scope N_scope.
Local Open Scope res_scope.

Lemma zero_fill r c m :
  lenN m = r * c ->
  exists m', for_range 0 (r * c) (fun i m => wr m i x0) m = Ok m' /\
    holds m' r c (fun _ _ => x0).
Proof.
  intros HL.
  pose (P := fun (i : N) (s : list qx) => lenN s = r * c /\ forall k, k < i -> nthx s k = x0).
  destruct (for_range_inv P 0 (r * c) (fun i m => wr m i x0) m) as (m' & E & HL' & Hz).
  - lia.
  - split; [assumption | intros; lia].
  - intros i s [_ Hi] [HLs Hs]. rewrite wr_ok by lia.
    eexists; split; [reflexivity|]. split; [now rewrite lenN_upd|].
    intros k Hk. rewrite nthx_upd by lia.
    destruct (N.eqb_spec k i); [reflexivity | apply Hs; lia].
  - exists m'. split; [exact E|]. split; [exact HL'|].
    intros a b Ha Hb. apply Hz. now apply idx_lt.
Qed.

Lemma unit_vec_good n j :
  j < n ->
  exists em, wr (repeat x0 (N.to_nat n)) j x1 = Ok em /\ good (mkmat n 1 em) n 1 /\
    forall r, r < n -> fm_of (mkmat n 1 em) r 0 = fm_id r j.
Proof.
  intros Hj.
  assert (HL : lenN (repeat x0 (N.to_nat n)) = n) by (rewrite lenN_repeat; lia).
  rewrite wr_ok by lia. eexists; split; [reflexivity|]. split.
  - split; [|split; [|split]]; try reflexivity.
    + unfold wf. cbn [dm drow dcol]. rewrite lenN_upd, HL. lia.
    + unfold fin_mat. cbn [dm]. apply fin_vec_upd; [apply fin_vec_repeat | exact I].
  - intros r Hr. unfold fm_of, val, entry, ent. cbn [dm dcol].
    rewrite nthx_upd by lia. unfold fm_id.
    destruct (N.eqb_spec (r * 1 + 0) j), (N.eqb_spec r j); try lia.
    + reflexivity.
    + rewrite nthx_repeat. reflexivity.
Qed.

(* for (i < n) B[i*n+j] = x[i]  with x an n x 1 matrix of numbers *)
Lemma copy_col xx n j bm M :
  good xx n 1 -> repr bm n n M -> j < n ->
  exists bm',
    for_range 0 n (fun i bm => do e <- rd (dm xx) i; wr bm (i * n + j) e) bm = Ok bm' /\
    repr bm' n n (fun r c => if c =? j then fm_of xx r 0 else M r c).
Proof.
  intros Gx HM Hj. pose proof (good_repr xx n 1 Gx) as Hx.
  apply (repr_loop n n (fun t r c => if (c =? j) && (r <? t) then fm_of xx r 0 else M r c)
           M _ 0 n _ bm ltac:(lia) HM).
  - intros r c _ _. ffj_cases; reflexivity.
  - intros i s [_ Hi] Hs.
    assert (Ei : rd (dm xx) i = Ok (Fin (fm_of xx i 0))).
    { rewrite <- (repr_rd (dm xx) n 1 _ Hx i 0) by lia. f_equal. lia. }
    rewrite Ei. cbn [bind]. apply (repr_wr s n n _ _ i j _ Hs Hi Hj).
    intros r c _ _. unfold fm_set. ffj_cases; reflexivity.
  - intros r c Hr _. ffj_cases; reflexivity.
Qed.

(* on an n x n matrix of numbers (n > 0), with a well-formed n x n matrix B for the result:
   when the diagonal of the packed matrix computed by fraction_free_LU has no zero,
   inverse_fraction_free_LU succeeds and returns a matrix of numbers B' with A B' = I *)
Theorem inverse_fflu_spec A B n LU :
  good A n n -> 0 < n -> wf B -> drow B = n -> dcol B = n ->
  fraction_free_LU A (mzero n n) = Ok LU ->
  (forall j, j < n -> x_is_zero (entry LU j j) = false) ->
  exists B', inverse_fraction_free_LU A B = Ok B' /\ good B' n n /\
    fm_eq n n (fm_mul n (fm_of A) (fm_of B')) fm_id.
Proof.
  intros GA Hn WB HBr HBc ELU HG.
  pose proof GA as (_ & _ & HrA & HcA).
  destruct (fflu_spec A (mzero n n) n GA Hn eq_refl eq_refl) as (LU' & ELU' & HLU').
  rewrite ELU in ELU'. inversion ELU'; subst LU'. clear ELU'.
  destruct (HLU' HG) as (GLU & HLU & HD).
  unfold inverse_fraction_free_LU. rewrite HrA.
  assert (HLB : lenN (dm B) = n * n) by (unfold wf in WB; now rewrite WB, HBr, HBc).
  destruct (zero_fill n n (dm B) HLB) as (bm0 & E0 & H0).
  rewrite E0. cbn [bind]. rewrite ELU. cbn [bind].
  pose (P := fun (j : N) (bm : list qx) =>
    exists M, repr bm n n M /\
      forall r c, r < n -> c < j -> fm_mul n (fm_of A) M r c = fm_id r c).
  destruct (for_range_inv P 0 n (fun j bm =>
    do em <- wr (repeat x0 (N.to_nat n)) j x1;
    do x_ <- forward_substitution LU (mkmat n 1 em) (mzero n 1);
    do xx <- back_substitution LU x_ (mzero n 1);
    for_range 0 n (fun i bm =>
      do e <- rd (dm xx) i;
      wr bm (i * n + j) e) bm) bm0) as (bm & E & M & HM & Hm).
  - lia.
  - exists (fun _ _ => qc0). split; [exact H0 | intros; lia].
  - intros j s [_ Hj] (M & HM & Hdone).
    destruct (unit_vec_good n j Hj) as (em & Ee & Ge & Hev). rewrite Ee. cbn [bind].
    destruct (fflu_tail A LU (mkmat n 1 em) (mzero n 1) (mzero n 1) n 1 GA Hn GLU HLU HD Ge
                eq_refl eq_refl eq_refl eq_refl) as (y & xx & Ey & Ex & Gx & Hx).
    rewrite Ey. cbn [bind]. rewrite Ex. cbn [bind].
    destruct (copy_col xx n j s M Gx HM Hj) as (s' & E' & HM').
    exists s'. split; [exact E'|]. eexists. split; [exact HM'|].
    intros r c Hr Hc. destruct (N.eq_dec c j) as [->|ne].
    + rewrite <- (Hev r Hr). rewrite <- (Hx r 0 Hr ltac:(lia)).
      unfold fm_mul. apply sumN_ext. intros k Hk. now rewrite N.eqb_refl.
    + rewrite <- (Hdone r c Hr ltac:(lia)).
      apply fm_mul_ext; intros k Hk; [reflexivity|]. destruct (N.eqb_spec c j); [lia | reflexivity].
  - rewrite E. cbn [bind]. eexists; split; [reflexivity|].
    destruct (repr_good bm n n M B HM HBr HBc) as (GB & HB). split; [exact GB|].
    intros r c Hr Hc. rewrite <- (Hm r c Hr Hc).
    apply fm_mul_ext; intros k Hk; [reflexivity|]. symmetry. now apply HB.
Qed.

(* the statement in the partial-correctness form *)
Corollary inverse_fflu_guarded A B B' n LU :
  inverse_fraction_free_LU A B = Ok B' ->
  good A n n -> 0 < n -> wf B -> drow B = n -> dcol B = n ->
  fraction_free_LU A (mzero n n) = Ok LU ->
  (forall j, j < n -> x_is_zero (entry LU j j) = false) ->
  good B' n n /\ fm_eq n n (fm_mul n (fm_of A) (fm_of B')) fm_id.
Proof.
  intros E GA Hn WB HBr HBc ELU HG.
  destruct (inverse_fflu_spec A B n LU GA Hn WB HBr HBc ELU HG) as (B'' & E' & H).
  rewrite E in E'. inversion E'; subst B''. exact H.
Qed.
