(* C24 -- concrete witnesses evaluated by the kernel: the defects of the transcribed code
   (refutations) and non-trivial inputs satisfying the hypotheses of the theorems. *)
From SE Require Import C24.DenseModel C24.DenseLegacy C24.DenseBase C24.DenseSpec.
From Coq Require Import Lia.
Local Open Scope N_scope.

Definition qi (z : Z) : qx := Fin (Q2Qc (inject_Z z)).
Definition mat_of_Z (r c : N) (l : list Z) : dmat := mkmat r c (map qi l).

(* printable form of an entry: numerator/denominator, None for zoo / nan *)
Definition qx_repr (a : qx) : option (Z * positive) :=
  match a with Fin q => Some (Qnum (this q), Qden (this q)) | _ => None end.
Definition zr (z : Z) : option (Z * positive) := Some (z, 1%positive).
Definition mat_repr (M : dmat) : list (option (Z * positive)) := map qx_repr (dm M).
Definition res_map {A B} (f : A -> B) (r : res A) : res B :=
  match r with Ok a => Ok (f a) | ErrOOB i l => ErrOOB i l | ErrFuel => ErrFuel | ErrExn c => ErrExn c end.

(* boolean checks of well-formedness / rationality, to discharge `good` on witnesses *)
Definition is_finb (a : qx) : bool := match a with Fin _ => true | _ => false end.
Definition goodb (M : dmat) (r c : N) : bool :=
  (lenN (dm M) =? r * c) && forallb is_finb (dm M) && (drow M =? r) && (dcol M =? c).

Lemma goodb_good M r c : goodb M r c = true -> good M r c.
Proof.
  unfold goodb. rewrite !andb_true_iff, !N.eqb_eq. intros [[[HL HF] Hr] Hc].
  unfold good, wf, fin_mat, fin_vec. rewrite Hr, Hc. repeat split; try assumption.
  intros k Hk. rewrite forallb_forall in HF. unfold nthx.
  assert (In (nth (N.to_nat k) (dm M) x0) (dm M)) as Hin.
  { apply nth_In. unfold lenN in Hk. lia. }
  specialize (HF _ Hin). destruct (nth (N.to_nat k) (dm M) x0); cbn in *; [exact I | discriminate | discriminate].
Qed.

Definition W22 : dmat := mat_of_Z 3 3 [0; 1; 2; 0; 3; 4; 0; 5; 7]%Z.

(* pivoted_gaussian_elimination_v0 leaves row 1 = (0, 3, 4) under row 0 = (0, 1, 2): two rows
   with the same leading column -- not an echelon form *)
Lemma pge_W22 :
  res_map (fun r => mat_repr (fst r)) (pivoted_gaussian_elimination_v0 W22 (mzero 3 3) [])
  = Ok [zr 0; zr 1; zr 2; zr 0; zr 3; zr 4; zr 0; zr 0; zr (-13)]%Z.
Proof. vm_compute. reflexivity. Qed.

(* the fraction-free variant divides by B[0][0] = 0 and produces zoo *)
Lemma pffge_W22 :
  res_map (fun r => mat_repr (fst r)) (pivoted_fraction_free_gaussian_elimination_v0 W22 (mzero 3 3) [])
  = Ok [zr 0; zr 1; zr 2; zr 0; zr 3; zr 4; zr 0; zr 0; None]%Z.
Proof. vm_compute. reflexivity. Qed.

(* the Gauss-Jordan variants use `index` and are right on the same input *)
Lemma pgj_W22 :
  res_map (fun r => mat_repr (fst r)) (pivoted_gauss_jordan_elimination W22 (mzero 3 3) [])
  = Ok [zr 0; zr 1; zr 0; zr 0; zr 0; zr 1; zr 0; zr 0; zr 0]%Z.
Proof. vm_compute. reflexivity. Qed.

Definition WP : dmat := mat_of_Z 2 2 [0; 1; 1; 0]%Z.       (* a permutation matrix, det = -1 *)

Lemma LU_WP :
  res_map (fun r => (mat_repr (fst r), mat_repr (snd r))) (LU WP (mzero 2 2) (mzero 2 2))
  = Ok ([zr 1; zr 0; None; zr 1], [zr 0; zr 1; zr 0; None])%Z.
Proof. vm_compute. reflexivity. Qed.

Lemma inverse_LU_WP :
  res_map mat_repr (inverse_LU WP (mzero 2 2)) = Ok [None; None; None; None].
Proof. vm_compute. reflexivity. Qed.

Lemma inverse_pivoted_LU_WP :
  res_map mat_repr (inverse_pivoted_LU WP (mzero 2 2)) = Ok [zr 0; zr 1; zr 1; zr 0]%Z.
Proof. vm_compute. reflexivity. Qed.

Lemma LU_solve_WP :
  res_map mat_repr (LU_solve WP (mat_of_Z 2 1 [1; 2]%Z) (mzero 2 1)) = Ok [None; None].
Proof. vm_compute. reflexivity. Qed.

Definition WS : dmat := mat_of_Z 2 2 [1; 2; 2; 4]%Z.       (* singular *)

(* no pivot in column 1: the swap loops of fraction_free_gauss_jordan_solve_v0 index row 2 *)
Lemma ffgj_solve_WS :
  fraction_free_gauss_jordan_solve_v0 WS (mat_of_Z 2 1 [1; 2]%Z) (mzero 2 1) true = ErrOOB 5 4.
Proof. vm_compute. reflexivity. Qed.

Lemma inverse_gauss_jordan_WS : inverse_gauss_jordan_v0 WS (mzero 2 2) = ErrOOB 5 4.
Proof. vm_compute. reflexivity. Qed.

(* a wide matrix: fraction_free_gauss_jordan_elimination_v0 uses row 2 of a 2 x 3 matrix *)
Lemma ffgj_wide :
  fraction_free_gauss_jordan_elimination_v0 (mat_of_Z 2 3 [1; 2; 3; 4; 5; 6]%Z) (mzero 2 3) = ErrOOB 8 6.
Proof. vm_compute. reflexivity. Qed.

(* refutations; those about *_v0 concern the code before the repairs and are kept as the
   record of fixed defects *)
(* rows 0 and 1 of the result have the same leading column: not an echelon form *)
Theorem pge_echelon_refuted :
  exists A, good A 3 3 /\ exists B pl,
    pivoted_gaussian_elimination_v0 A (mzero 3 3) [] = Ok (B, pl) /\
    x_is_zero (entry B 0 0) = true /\ x_is_zero (entry B 0 1) = false /\
    x_is_zero (entry B 1 0) = true /\ x_is_zero (entry B 1 1) = false.
Proof.
  exists W22. split; [apply goodb_good; vm_compute; reflexivity|].
  eexists; eexists; split; [vm_compute; reflexivity|]. vm_compute. auto.
Qed.

(* a rational input, a result with a zoo entry *)
Theorem pffge_finite_refuted :
  exists A, good A 3 3 /\ exists B pl,
    pivoted_fraction_free_gaussian_elimination_v0 A (mzero 3 3) [] = Ok (B, pl) /\ entry B 2 2 = Zoo.
Proof.
  exists W22. split; [apply goodb_good; vm_compute; reflexivity|].
  eexists; eexists; split; [vm_compute; reflexivity|]. vm_compute. reflexivity.
Qed.

(* a non-singular matrix (det = -1) whose LU "factors" contain zoo *)
Theorem LU_finite_refuted :
  exists A, good A 2 2 /\ det 2 (fm_of A) <> 0%Qc /\ exists L U,
    LU A (mzero 2 2) (mzero 2 2) = Ok (L, U) /\ entry L 1 0 = Zoo /\ entry U 1 1 = Zoo.
Proof.
  exists WP. split; [apply goodb_good; vm_compute; reflexivity|]. split.
  - intros H. apply (f_equal (fun q => Qnum (this q))) in H. vm_compute in H. discriminate.
  - eexists; eexists; split; [vm_compute; reflexivity|]. vm_compute. auto.
Qed.

(* ... and whose "inverse" by inverse_LU has no rational entry at all, while
   inverse_pivoted_LU returns the inverse *)
Theorem inverse_LU_refuted :
  exists A, good A 2 2 /\ det 2 (fm_of A) <> 0%Qc /\ exists B,
    inverse_LU A (mzero 2 2) = Ok B /\ forallb is_finb (dm B) = false /\
    exists B', inverse_pivoted_LU A (mzero 2 2) = Ok B' /\ goodb B' 2 2 = true.
Proof.
  exists WP. split; [apply goodb_good; vm_compute; reflexivity|]. split.
  - intros H. apply (f_equal (fun q => Qnum (this q))) in H. vm_compute in H. discriminate.
  - eexists; split; [vm_compute; reflexivity|]. split; [vm_compute; reflexivity|].
    eexists; split; vm_compute; reflexivity.
Qed.

(* in-bounds obligation refuted: a singular 2 x 2 input makes the pivot search of
   fraction_free_gauss_jordan_solve_v0 (and so inverse_gauss_jordan_v0) run off the matrix *)
Theorem ffgj_solve_in_bounds_refuted :
  exists A b, good A 2 2 /\ good b 2 1 /\
    fraction_free_gauss_jordan_solve_v0 A b (mzero 2 1) true = ErrOOB 5 4 /\
    inverse_gauss_jordan_v0 A (mzero 2 2) = ErrOOB 5 4.
Proof.
  exists WS, (mat_of_Z 2 1 [1; 2]%Z).
  split; [apply goodb_good; vm_compute; reflexivity|].
  split; [apply goodb_good; vm_compute; reflexivity|].
  split; vm_compute; reflexivity.
Qed.

(* in-bounds obligation refuted: a wide matrix *)
Theorem ffgj_wide_in_bounds_refuted :
  exists A, good A 2 3 /\ fraction_free_gauss_jordan_elimination_v0 A (mzero 2 3) = ErrOOB 8 6.
Proof.
  exists (mat_of_Z 2 3 [1; 2; 3; 4; 5; 6]%Z).
  split; [apply goodb_good; vm_compute; reflexivity | vm_compute; reflexivity].
Qed.

Lemma pge_W22_repaired :
  res_map (fun r => mat_repr (fst r)) (pivoted_gaussian_elimination W22 (mzero 3 3) [])
  = Ok [zr 0; zr 1; zr 2; zr 0; zr 0; zr (-2); zr 0; zr 0; zr (-3)]%Z.
Proof. vm_compute. reflexivity. Qed.

Lemma pffge_W22_repaired :
  res_map (fun r => mat_repr (fst r)) (pivoted_fraction_free_gaussian_elimination W22 (mzero 3 3) [])
  = Ok [zr 0; zr 1; zr 2; zr 0; zr 0; zr (-2); zr 0; zr 0; zr (-3)]%Z.
Proof. vm_compute. reflexivity. Qed.

Lemma ffgj_solve_WS_repaired :
  fraction_free_gauss_jordan_solve WS (mat_of_Z 2 1 [1; 2]%Z) (mzero 2 1) true = ErrExn EXN_RANKDEF
  /\ inverse_gauss_jordan WS (mzero 2 2) = ErrExn EXN_RANKDEF.
Proof. split; vm_compute; reflexivity. Qed.

Lemma ffgj_wide_repaired :
  res_map mat_repr (fraction_free_gauss_jordan_elimination (mat_of_Z 2 3 [1; 2; 3; 4; 5; 6]%Z) (mzero 2 3))
  = Ok [zr (-3); zr 0; zr 3; zr 0; zr (-3); zr (-6)]%Z.
Proof. vm_compute. reflexivity. Qed.
