(* C24 obligation: det_berkowitz order 4 *)
From SE Require Import C24.DenseModel C24.DenseSpec C24.DenseBerk.
Local Open Scope N_scope.
Local Open Scope res_scope.
Theorem C24_det_berkowitz_4 :
  forall A,
  good A 4 4 -> exists d, det_berkowitz A = Ok (Fin d) /\ d = det 4 (fm_of A).
Proof. exact (det_berkowitz_small 4 eq_refl). Qed.
Print Assumptions C24_det_berkowitz_4.
