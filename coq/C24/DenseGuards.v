(* C24 -- boolean guards (computable on the input): the defect classes of the
   unpivoted routines are "a pivot met by the algorithm is zero". *)
From SE Require Import C24.DenseModel C24.DenseBase.
From Coq Require Import Lia ZifyBool ZifyNat ZifyN.
Local Open Scope N_scope.

(* 0, 1, ..., n-1 *)
Definition rangeN (n : N) : list N := map N.of_nat (seq 0 (N.to_nat n)).

(* every diagonal entry of U is a non-zero number *)
Definition diag_nonzero_b (U : dmat) (n : N) : bool :=
  forallb (fun j => negb (x_is_zero (entry U j j))) (rangeN n).

Lemma rangeN_In n j : In j (rangeN n) <-> j < n.
Proof.
  unfold rangeN. rewrite in_map_iff. split.
  - intros (k & <- & Hk). apply in_seq in Hk. lia.
  - intros H. exists (N.to_nat j). split; [lia|]. apply in_seq. lia.
Qed.

Lemma diag_nonzero_b_spec U n :
  diag_nonzero_b U n = true <-> forall j, j < n -> x_is_zero (entry U j j) = false.
Proof.
  unfold diag_nonzero_b. rewrite forallb_forall. split.
  - intros H j Hj. specialize (H j (proj2 (rangeN_In n j) Hj)). now apply negb_true_iff in H.
  - intros H j Hj. apply negb_true_iff. apply H. now apply rangeN_In.
Qed.

(* the run of LU on A meets no zero pivot (including the last one, by which the solvers
   divide) *)
Definition guard_lu (A : dmat) : bool :=
  match LU A (mzero (drow A) (dcol A)) (mzero (drow A) (dcol A)) with
  | Ok (L, U) => diag_nonzero_b U (drow A)
  | _ => false
  end.
