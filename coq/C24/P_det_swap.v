(* C24 obligation: exchanging two rows negates the determinant *)
From SE Require Import C24.DenseModel C24.DenseSpec C24.DetTheory.
Local Open Scope N_scope.
Local Open Scope res_scope.
Theorem C24_det_swap :
  forall n A a b,
  a < N.of_nat n -> b < N.of_nat n -> a <> b -> det n (fm_swap a b A) = (- det n A)%Qc.
Proof. exact det_swap. Qed.
Print Assumptions C24_det_swap.
