(* C24 obligation: char_poly order 1 = det(xI - A) *)
From SE Require Import C24.DenseModel C24.DenseBase C24.DenseSpec C24.DenseBerk.
Local Open Scope N_scope.
Local Open Scope res_scope.
Theorem C24_char_poly_1 :
  forall A,
  good A 1 1 ->
  exists p, char_poly A = Ok p /\ drow p = 2 /\ dcol p = 1 /\ Forall is_fin (dm p) /\
    forall x, peval (map qv (dm p)) x = det 1 (xI_minus (fm_of A) x).
Proof. exact (char_poly_small 1 eq_refl). Qed.
Print Assumptions C24_char_poly_1.
