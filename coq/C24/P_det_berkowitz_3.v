(* C24 obligation: det_berkowitz order 3 *)
From SE Require Import C24.DenseModel C24.DenseSpec C24.DenseBerk.
Local Open Scope N_scope.
Local Open Scope res_scope.
Theorem C24_det_berkowitz_3 :
  forall A,
  good A 3 3 -> exists d, det_berkowitz A = Ok (Fin d) /\ d = det 3 (fm_of A).
Proof. exact (det_berkowitz_small 3 eq_refl). Qed.
Print Assumptions C24_det_berkowitz_3.
