(* C24 -- pivoted Gaussian (forward) elimination.  The routine of the library uses the
   column counter i where the pivot row `index` is meant (DenseModel.v transcribes it as it
   is).  This file:
   - defines the repaired routine [pivoted_gaussian_elimination_fixed] (row `index` is the
     pivot row, rows index+1.. are eliminated);
   - proves its total correctness on rational matrices of every size: the result is row
     equivalent to the input and in row echelon form with leading ones on the first c-1
     columns (the last column is the right-hand side of an augmented system);
   - defines a computable guard [pge_no_skip] under which the routine that exists computes
     the same thing as the repaired one, and transfers the specification.               *)
From SE Require Import C24.DenseLegacy C24.DenseModel C24.DenseBase C24.DenseSpec C24.DenseOps C24.DenseGJ C24.DenseGJ2.
From Coq Require Import Lia ZifyBool ZifyNat ZifyN.
Local Open Scope N_scope.
Local Open Scope res_scope.

(* pivoted_gaussian_elimination_v0 with `index` as pivot row:
     for (j = index + 1; j < row; j++) {
       for (k = i + 1; k < col; k++)
         B[j*col+k] = sub(B[j*col+k], mul(B[j*col+i], B[index*col+k]));
       B[j*col+i] = zero; }                                                             *)
Definition pivoted_gaussian_elimination_fixed (A B : dmat) (pl0 : list (N * N))
  : res (dmat * list (N * N)) :=
  let row := drow A in
  let col := dcol A in
  if col =? 0 then ErrExn EXN_EMPTY else
  do st <- for_range 0 (col - 1) (fun i (st : est) =>
    let '(m, pl, index) := st in
    if index =? row then Ok st else
    do ps <- pivot_step m pl row col index i;
    match ps with
    | None => Ok st
    | Some (m, pl) =>
        do p <- rd m (index * col + i);
        do m <- row_mul_scalar m col index (xdiv x1 p);
        do m <- for_range (index + 1) row (fun j m =>
                  do m <- for_range (i + 1) col (fun k m =>
                            do bjk <- rd m (j * col + k);
                            do bji <- rd m (j * col + i);
                            do bik <- rd m (index * col + k);
                            wr m (j * col + k) (xsub bjk (xmul bji bik))) m;
                  wr m (j * col + i) x0) m;
        Ok (m, pl, index + 1)
    end) (dm A, pl0, 0);
  let '(m, pl, _) := st in
  Ok (setm B m, pl).

(* row j := row j - B[j,i] * row p  on the columns > i, column i := 0 *)
Definition ge_row (col p i j : N) (m : list qx) : res (list qx) :=
  do m <- for_range (i + 1) col (fun k m =>
            do bjk <- rd m (j * col + k);
            do bji <- rd m (j * col + i);
            do bik <- rd m (p * col + k);
            wr m (j * col + k) (xsub bjk (xmul bji bik))) m;
  wr m (j * col + i) x0.

(* the eliminating loop: rows first.. with pivot row p *)
Definition ge_elim (row col first p i : N) (m : list qx) : res (list qx) :=
  for_range first row (fun j m => ge_row col p i j m) m.

(* the body of the column loop; [fixed = true]: pivot row index, [false]: the code that
   exists (pivot row i) *)
Definition ge_body (fixed : bool) (row col : N) (i : N) (st : est) : res est :=
  let '(m, pl, index) := st in
  if index =? row then Ok st else
  do ps <- pivot_step m pl row col index i;
  match ps with
  | None => Ok st
  | Some (m, pl) =>
      do p <- rd m (index * col + i);
      do m <- row_mul_scalar m col index (xdiv x1 p);
      do m <- (if fixed then ge_elim row col (index + 1) index i m
               else ge_elim row col (i + 1) i i m);
      Ok (m, pl, index + 1)
  end.

Lemma pge_fixed_unfold A B pl0 :
  pivoted_gaussian_elimination_fixed A B pl0 =
  if dcol A =? 0 then ErrExn EXN_EMPTY else
  do st <- for_range 0 (dcol A - 1) (ge_body true (drow A) (dcol A)) (dm A, pl0, 0);
  let '(m, pl, _) := st in Ok (setm B m, pl).
Proof. reflexivity. Qed.

Lemma pge_unfold A B pl0 :
  pivoted_gaussian_elimination_v0 A B pl0 =
  if dcol A =? 0 then ErrExn EXN_EMPTY else
  do st <- for_range 0 (dcol A - 1) (ge_body false (drow A) (dcol A)) (dm A, pl0, 0);
  let '(m, pl, _) := st in Ok (setm B m, pl).
Proof. reflexivity. Qed.

(* row echelon form on the first c' columns: pc lists the pivot columns (increasing), row k
   has its leading entry (satisfying [lead]) in column pc[k], zeros below it; the rows from
   lenN pc on are zero; the columns >= c' are unconstrained *)
Definition is_ech (lead : Qc -> Prop) (r c' : N) (M : fm) (pc : list N) : Prop :=
  increasing pc /\ lenN pc <= r /\
  (forall k, k < lenN pc ->
     nthN pc k < c' /\ lead (M k (nthN pc k)) /\
     (forall j, j < nthN pc k -> M k j = 0%Qc) /\
     (forall a, k < a -> a < r -> M a (nthN pc k) = 0%Qc)) /\
  (forall a j, lenN pc <= a -> a < r -> j < c' -> M a j = 0%Qc).

(* with leading ones *)
Definition is_ref (r c' : N) (M : fm) (pc : list N) : Prop := is_ech (fun x => x = 1%Qc) r c' M pc.
(* with non-zero leading entries *)
Definition is_ef (r c' : N) (M : fm) (pc : list N) : Prop := is_ech (fun x => x <> 0%Qc) r c' M pc.

Lemma is_ref_unfold r c' M pc :
  is_ref r c' M pc <->
  increasing pc /\ lenN pc <= r /\
  (forall k, k < lenN pc ->
     nthN pc k < c' /\ M k (nthN pc k) = 1%Qc /\
     (forall j, j < nthN pc k -> M k j = 0%Qc) /\
     (forall a, k < a -> a < r -> M a (nthN pc k) = 0%Qc)) /\
  (forall a j, lenN pc <= a -> a < r -> j < c' -> M a j = 0%Qc).
Proof. reflexivity. Qed.

Lemma is_ref_is_ef r c' M pc : is_ref r c' M pc -> is_ef r c' M pc.
Proof.
  intros (H1 & H2 & H3 & H4). split; [|split; [|split]]; try assumption.
  intros k Hk. destruct (H3 k Hk) as (P1 & P2 & P3 & P4).
  split; [|split; [|split]]; try assumption.
  rewrite P2. intros H. now apply Q_apart_0_1 in H.
Qed.

(* a reduced row echelon form is a row echelon form *)
Lemma is_rref_is_ref r c M pc : is_rref r c M pc -> is_ref r c M pc.
Proof.
  intros (H1 & H2 & H3 & H4). split; [|split; [|split]]; try assumption.
  intros k Hk. destruct (H3 k Hk) as (P1 & P2 & P3 & P4).
  split; [|split; [|split]]; try assumption.
  intros a Hka Ha. apply P4; lia.
Qed.

(* [is_ech] is the echelon form of DenseGJ.v that asks for zeros below the pivots *)
Lemma is_ech_echelon lead r c' M pc : is_ech lead r c' M pc <-> echelon lead N.lt r c' M pc.
Proof.
  split; intros (H1 & H2 & H3 & H4); (split; [|split; [|split]]); try assumption;
    intros k Hk; destruct (H3 k Hk) as (P1 & P2 & P3 & P4); (split; [|split; [|split]]); auto.
Qed.

(* what ge_row computes on row j *)
Definition fm_gerow (p i j : N) (M : fm) : fm :=
  fun a b => if a =? j
             then (if b <? i then M j b else if b =? i then 0 else M j b - M j i * M p b)%Qc
             else M a b.

Lemma ge_row_spec m r c M p i j :
  repr m r c M -> p < r -> j < r -> j <> p -> i < c ->
  exists m', ge_row c p i j m = Ok m' /\ repr m' r c (fm_gerow p i j M).
Proof.
  intros HR Hp Hj Hne Hi. unfold ge_row.
  pose (F := fun (t a b : N) =>
    if (a =? j) && ((i <? b) && (b <? t)) then (M j b - M j i * M p b)%Qc else M a b).
  apply (bind_ex _ _ (fun s => repr s r c (F c))).
  - apply (repr_loop r c F M); [lia | exact HR | | |].
    + intros a b _ _. unfold F. ffj_cases; reflexivity.
    + intros t s [Ht1 Ht2] HRs. rewrite !(repr_rd s r c _ HRs) by lia. cbn [bind].
      rewrite xmul_fin, xsub_fin. apply (repr_wr s r c (F t)); try assumption.
      intros a b _ _. unfold fm_set, F. ffj_cases; reflexivity.
    + intros a b _ _. reflexivity.
  - intros s HRs. apply (repr_wr s r c (F c)); try assumption.
    intros a b _ Hb. unfold fm_set, F, fm_gerow. ffj_cases; reflexivity.
Qed.

(* every row a below the pivot row idx gets  row a - M a i * row idx *)
Definition fm_elim_below (idx i : N) (M : fm) : fm :=
  fun a b => if a <=? idx then M a b else (M a b + (- M a i) * M idx b)%Qc.

Lemma fm_elim_below_equiv r c idx i M : idx < r -> row_equiv r c M (fm_elim_below idx i M).
Proof.
  intros Hidx. eapply re_trans.
  - apply (fm_comb_equiv r c idx (fun _ => 1%Qc)
             (fun a => if a <=? idx then 0%Qc else (- M a i)%Qc) M r Hidx); [|lia].
    intros _ _. exact Q_apart_0_1.
  - apply re_refl. intros a b Ha _. unfold fm_comb, fm_elim_below. ffj_cases; ring.
Qed.

(* ge_row leaves the columns < i alone and writes 0 in column i: the full row operation when
   the pivot row is zero left of column i and has a leading one *)
Lemma ge_elim_spec m r c M idx i :
  repr m r c M -> idx < r -> i < c ->
  (forall b, b < i -> M idx b = 0%Qc) -> M idx i = 1%Qc ->
  exists m', ge_elim r c (idx + 1) idx i m = Ok m' /\ repr m' r c (fm_elim_below idx i M).
Proof.
  intros HR Hidx Hi Hz H1. unfold ge_elim.
  pose (F := fun (t a b : N) => if a <? t then fm_elim_below idx i M a b else M a b).
  apply (repr_loop r c F M); [lia | exact HR | | |].
  - intros a b _ _. unfold F, fm_elim_below. ffj_cases; reflexivity.
  - intros t s [Ht1 Ht] HRs.
    destruct (ge_row_spec s r c (F t) idx i t HRs Hidx Ht ltac:(lia) Hi) as (s' & E' & HR').
    exists s'. split; [exact E'|]. apply (repr_ext _ _ _ _ _ HR').
    intros a b _ Hb. unfold fm_gerow, F, fm_elim_below.
    ffj_cases; rewrite ?Hz by lia; rewrite ?H1; ring.
  - intros a b Ha _. unfold F. ffj_cases; reflexivity.
Qed.

Definition ge_inv (r c : N) (A0 : fm) (i : N) (st : est) : Prop :=
  let '(m, pl, index) := st in
  exists M pc, repr m r c M /\ row_equiv r c A0 M /\ index = lenN pc /\
    echelon (fun x => x = 1%Qc) N.lt r i M pc.

Lemma ge_step r c A0 i st :
  i < c -> ge_inv r c A0 i st ->
  exists st', ge_body true r c i st = Ok st' /\ ge_inv r c A0 (i + 1) st'.
Proof.
  destruct st as [[m pl] index]. intros Hi (M & pc & HR & HE & -> & Hrr).
  unfold ge_body.
  assert (Hle : lenN pc <= r) by (destruct Hrr as (_ & H & _); exact H).
  destruct (N.eqb_spec (lenN pc) r) as [e|ne].
  - exists (m, pl, lenN pc). split; [reflexivity|]. exists M, pc.
    split; [assumption|]. split; [assumption|]. split; [reflexivity|].
    apply echelon_skip; [assumption|]. intros; lia.
  - assert (Hlt : lenN pc < r) by lia.
    destruct (pivot_step_echelon _ _ m pl r c M pc i HR Hrr Hlt Hi)
      as [[E Hz] | (m1 & pl1 & M1 & E & HR1 & HE1 & Hrr1 & Hp & _)]; rewrite E; cbn [bind].
    + exists (m, pl, lenN pc). split; [reflexivity|]. exists M, pc.
      split; [assumption|]. split; [assumption|]. split; [reflexivity|].
      now apply echelon_skip.
    + rewrite (repr_rd m1 r c M1 HR1) by assumption. cbn [bind].
      rewrite xdiv_one_fin by assumption.
      set (p := M1 (lenN pc) i) in *.
      destruct (repr_scale m1 r c M1 (lenN pc) (/ p)%Qc HR1 Hlt) as (m2 & E2 & HR2).
      rewrite E2. cbn [bind].
      set (M2 := fm_scale (lenN pc) (/ p)%Qc M1) in *.
      pose proof (echelon_scale _ _ r i M1 pc (lenN pc) (/ p)%Qc Hrr1 (N.le_refl _) Hlt) as Hrr2.
      fold M2 in Hrr2.
      assert (H21 : M2 (lenN pc) i = 1%Qc).
      { unfold M2, fm_scale. rewrite N.eqb_refl. fold p. now apply Qcmult_inv_l. }
      assert (H20 : forall b, b < i -> M2 (lenN pc) b = 0%Qc).
      { intros b Hb. destruct Hrr2 as (_ & _ & _ & Hz2). apply Hz2; lia. }
      destruct (ge_elim_spec m2 r c M2 (lenN pc) i HR2 Hlt Hi H20 H21) as (m3 & E3 & HR3).
      rewrite E3. cbn [bind].
      exists (m3, pl1, lenN pc + 1). split; [reflexivity|].
      exists (fm_elim_below (lenN pc) i M2), (pc ++ [i]).
      split; [assumption|]. split; [|split].
      * eapply re_trans; [exact HE|]. eapply re_trans; [exact HE1|].
        eapply re_trans; [apply (re_scale r c M1 _ (/ p)%Qc Hlt); now apply qcinv_nz|].
        now apply fm_elim_below_equiv.
      * now rewrite lenN_snoc.
      * apply (echelon_newpivot _ _ r i M2 _ pc Hrr2 Hlt); unfold fm_elim_below.
        -- intros a b Ha Hb.
           destruct (N.leb_spec a (lenN pc)); [reflexivity|]. rewrite H20 by assumption. ring.
        -- now rewrite N.leb_refl.
        -- intros a _ Ha. destruct (N.leb_spec a (lenN pc)); [lia|]. rewrite H21. ring.
Qed.

(* the repaired pivoted_gaussian_elimination_v0 on an r x c matrix of rationals (c > 0): total,
   the result is a good r x c matrix, row equivalent to A, in row echelon form with leading
   ones on the first c - 1 columns *)
Theorem pge_fixed_spec A B r c :
  good A r c -> 0 < c -> drow B = r -> dcol B = c ->
  exists B' pl, pivoted_gaussian_elimination_fixed A B [] = Ok (B', pl) /\ good B' r c /\
    row_equiv r c (fm_of A) (fm_of B') /\ exists pc, is_ref r (c - 1) (fm_of B') pc.
Proof.
  intros HG Hc0 Hr Hc. rewrite pge_fixed_unfold.
  pose proof HG as (_ & _ & HrA & HcA). rewrite HrA, HcA.
  destruct (N.eqb_spec c 0); [lia|].
  destruct (for_range_inv (ge_inv r c (fm_of A)) 0 (c - 1) (ge_body true r c) (dm A, [], 0))
    as ([[m pl] index] & E & M & pc & HR & HE & _ & Hrr).
  - lia.
  - exists (fm_of A), []. split; [now apply good_repr|]. split; [|split].
    + apply re_refl. intros a b _ _. reflexivity.
    + reflexivity.
    + apply echelon_nil.
  - intros i st [_ Hi] Hinv. apply ge_step; [lia | assumption].
  - rewrite E. cbn [bind].
    destruct (repr_setm m r c M B _ HR Hr Hc HE) as (HG' & HE' & HF).
    exists (setm B m), pl. split; [reflexivity|]. split; [assumption|]. split; [assumption|].
    exists pc. apply is_ech_echelon. apply echelon_ext with (M := M); [|assumption].
    intros a b Ha Hb. apply HF; lia.
Qed.

(* the two bodies differ only in the pivot row: they agree at a state where no pivot is
   processed, or where the pivot row `index` is the column counter *)
Definition ge_diag_step (row col i : N) (st : est) : bool :=
  let '(m, pl, index) := st in
  if index =? row then true else
  match pivot_step m pl row col index i with
  | Ok (Some _) => index =? i
  | _ => true
  end.

Lemma ge_body_agree row col i st :
  ge_diag_step row col i st = true -> ge_body false row col i st = ge_body true row col i st.
Proof.
  destruct st as [[m pl] index]. unfold ge_diag_step, ge_body.
  destruct (index =? row); [reflexivity|].
  destruct (pivot_step m pl row col index i) as [[[m1 pl1]|]| | |]; cbn [bind]; try reflexivity.
  intros H. apply N.eqb_eq in H. subst index. reflexivity.
Qed.

(* a loop replayed with a flag that records whether [ok] held at every state met *)
Definition flagged {St} (g : N -> St -> res St) (ok : N -> St -> bool) (k : N) (s : St * bool)
  : res (St * bool) :=
  let (st, b) := s in do st' <- g k st; Ok (st', b && ok k st).

Lemma for_up_flagged_true {St} (f : N -> St -> res St) (ok : N -> St -> bool) :
  forall n i s b s', for_up n i (flagged f ok) (s, b) = Ok (s', true) -> b = true.
Proof.
  induction n as [|n IH]; intros i s b s' E.
  - cbn in E. now inversion E.
  - rewrite for_up_S in E. apply bind_ok in E. destruct E as ([s1 b1] & E1 & E2).
    unfold flagged in E1. apply bind_ok in E1. destruct E1 as (s1' & Ef & E1).
    inversion E1; subst s1' b1. apply IH in E2. apply andb_true_iff in E2. tauto.
Qed.

(* a flagged loop whose final flag is true simulates a second loop, when one step of the
   first at a state where [ok] holds is matched by one step of the second *)
Lemma for_up_flagged_sim {St Tt} (R : N -> St -> Tt -> Prop) (f : N -> St -> res St)
      (g : N -> Tt -> res Tt) (ok : N -> St -> bool) :
  forall n i s b s' t,
    for_up n i (flagged f ok) (s, b) = Ok (s', true) ->
    R i s t ->
    (forall k s t s1, i <= k < i + N.of_nat n -> ok k s = true -> R k s t -> f k s = Ok s1 ->
       exists t1, g k t = Ok t1 /\ R (k + 1) s1 t1) ->
    for_up n i f s = Ok s' /\
    exists t', for_up n i g t = Ok t' /\ R (i + N.of_nat n) s' t'.
Proof.
  induction n as [|n IH]; intros i s b s' t E HR Hstep.
  - cbn in E. inversion E; subst. split; [reflexivity|].
    exists t. split; [reflexivity|]. now replace (i + N.of_nat 0) with i by lia.
  - rewrite for_up_S in E. apply bind_ok in E. destruct E as ([s1 b1] & E1 & E2).
    unfold flagged in E1. apply bind_ok in E1. destruct E1 as (s1' & Ef & E1).
    inversion E1; subst s1' b1. clear E1.
    pose proof (for_up_flagged_true f ok _ _ _ _ _ E2) as Hb.
    apply andb_true_iff in Hb. destruct Hb as [Hb Hok].
    destruct (Hstep i s t s1 ltac:(lia) Hok HR Ef) as (t1 & Eg & HR1).
    destruct (IH (i + 1) s1 (b && ok i s) s' t1 E2 HR1) as (Hf & t' & Eg' & HR').
    { intros k s0 t0 s2 Hk. apply Hstep. lia. }
    rewrite !for_up_S. rewrite Ef, Eg. cbn [bind].
    split; [assumption|]. exists t'. split; [assumption|].
    now replace (i + N.of_nat (S n)) with (i + 1 + N.of_nat n) by lia.
Qed.

(* the guard: replay the repaired routine and check that whenever a pivot is processed the
   pivot row `index` equals the column counter (no column without pivot was skipped
   before).  Computable on the input. *)
Definition pge_no_skip (A : dmat) : bool :=
  let row := drow A in
  let col := dcol A in
  match for_range 0 (col - 1) (flagged (ge_body true row col) (ge_diag_step row col))
                  ((dm A, [], 0), true) with
  | Ok (_, b) => b
  | _ => false
  end.

(* under the guard the routine that exists and the repaired one are the same computation *)
Theorem pge_guarded A B :
  pge_no_skip A = true ->
  pivoted_gaussian_elimination_v0 A B [] = pivoted_gaussian_elimination_fixed A B [].
Proof.
  unfold pge_no_skip. intros HG. rewrite pge_unfold, pge_fixed_unfold.
  destruct (dcol A =? 0); [reflexivity|].
  destruct (for_range 0 (dcol A - 1) (flagged (ge_body true (drow A) (dcol A)) (ge_diag_step (drow A) (dcol A)))
              (dm A, [], 0, true)) as [[s b]| | |] eqn:E; try discriminate.
  subst b. unfold for_range in *.
  destruct (for_up_flagged_sim (fun _ s t => t = s) (ge_body true (drow A) (dcol A))
              (ge_body false (drow A) (dcol A)) (ge_diag_step (drow A) (dcol A))
              _ _ _ _ _ (dm A, [], 0) E) as (Hf & t' & Hg & ->).
  - reflexivity.
  - intros k s0 t s1 _ Hok -> Ef. exists s1. split; [|reflexivity].
    now rewrite (ge_body_agree _ _ _ _ Hok).
  - now rewrite Hf, Hg.
Qed.

Corollary pge_spec_guarded A B r c :
  good A r c -> 0 < c -> drow B = r -> dcol B = c -> pge_no_skip A = true ->
  exists B' pl, pivoted_gaussian_elimination_v0 A B [] = Ok (B', pl) /\ good B' r c /\
    row_equiv r c (fm_of A) (fm_of B') /\ exists pc, is_ref r (c - 1) (fm_of B') pc.
Proof.
  intros HG Hc0 Hr Hc Hns. rewrite (pge_guarded A B Hns). now apply pge_fixed_spec.
Qed.

Definition zmat (r c : N) (l : list Z) : dmat := mkmat r c (map (fun z => Fin (Q2Qc (inject_Z z))) l).

(* a 3 x 4 augmented system with a pivot in every column: the guard holds *)
Example pge_no_skip_ex1 :
  pge_no_skip (zmat 3 4 [2; 1; -1; 8;  -3; -1; 2; -11;  -2; 1; 2; -3]%Z) = true.
Proof. vm_compute. reflexivity. Qed.

(* the second column has no pivot below the first row: column 1 is skipped and the pivot of
   column 2 is processed with index = 1 <> 2 *)
Example pge_no_skip_ex2 :
  pge_no_skip (zmat 3 4 [1; 2; 3; 4;  2; 4; 7; 9;  3; 6; 8; 1]%Z) = false.
Proof. vm_compute. reflexivity. Qed.

(* on that matrix the routine that exists does not eliminate below the pivot of column 2
   (found in row 1): entry (2,2) of its result is not zero, the repaired routine clears it *)
Definition cell_is_zero (res : res (dmat * list (N * N))) (i j : N) : option bool :=
  match res with
  | Ok (B, _) => match mget B i j with Ok e => Some (x_is_zero e) | _ => None end
  | _ => None
  end.

Example pge_skip_witness :
  let A := zmat 3 4 [1; 2; 3; 4;  2; 4; 7; 9;  3; 6; 8; 1]%Z in
  cell_is_zero (pivoted_gaussian_elimination_v0 A (mzero 3 4) []) 2 2 = Some false /\
  cell_is_zero (pivoted_gaussian_elimination_fixed A (mzero 3 4) []) 2 2 = Some true.
Proof. vm_compute. split; reflexivity. Qed.

(* since the repair e64308a the model's pivoted_gaussian_elimination IS the repaired text *)
Lemma pge_model_is_fixed A B pl0 :
  pivoted_gaussian_elimination A B pl0 = pivoted_gaussian_elimination_fixed A B pl0.
Proof. reflexivity. Qed.

Theorem pge_spec A B r c :
  good A r c -> 0 < c -> drow B = r -> dcol B = c ->
  exists B' pl, pivoted_gaussian_elimination A B [] = Ok (B', pl) /\ good B' r c /\
    row_equiv r c (fm_of A) (fm_of B') /\ exists pc, is_ref r (c - 1) (fm_of B') pc.
Proof. intros. rewrite pge_model_is_fixed. now apply pge_fixed_spec. Qed.
