(* C24 -- det_bareis for orders n >= 4, part 1: the triangular shortcut.
   [is_lower] / [is_upper] are specified as they are in the library (its unit tests
   confirm the reading): is_lower tests that the entries BELOW the diagonal are zero (so it
   holds of the upper triangular matrices), is_upper tests the entries ABOVE the diagonal.
   When one of them holds, det_bareis returns the product of the diagonal, which is the
   determinant. *)
From SE Require Import C24.DenseModel C24.DenseBase C24.DenseSpec C24.DenseDet C24.DetTheory.
From Coq Require Import Lia ZifyBool ZifyNat ZifyN.
Local Open Scope N_scope.
Local Open Scope res_scope.

Lemma tri_body A n i j (ok : bool) :
  good A n n -> i < n -> j < n ->
  (if ok then do e <- mget A i j; Ok (x_is_zero e) else Ok false) =
  Ok (ok && qc_is_zero (fm_of A i j)).
Proof.
  intros G Hi Hj. pose proof G as (W & F & Hr & Hc). destruct ok; [|reflexivity].
  unfold mget. rewrite Hc. rewrite (good_rd A n _ G) by (apply idx_lt; assumption). cbn [bind andb].
  unfold fm_of. rewrite (val_flat A n) by assumption. reflexivity.
Qed.

Lemma and_zero_iff (ok : bool) q (P : Prop) :
  (ok = true <-> P) -> (ok && qc_is_zero q = true <-> P /\ q = 0%Qc).
Proof. intros H. rewrite andb_true_iff, qc_is_zero_iff. tauto. Qed.

(* both tests run the same double loop over the positions (i, j), a <= i < b, lo i <= j < hi i;
   the flag stays true as long as the entries met are zero *)
Lemma zero_scan A n a b (lo hi : N -> N) :
  good A n n -> b <= n -> (forall i, a <= i < b -> lo i <= hi i <= n) ->
  exists r,
    for_range a b (fun i ok => for_range (lo i) (hi i) (fun j (ok : bool) =>
      if ok then do e <- mget A i j; Ok (x_is_zero e) else Ok false) ok) true = Ok r /\
    (r = true <-> forall i j, a <= i < b -> lo i <= j < hi i -> fm_of A i j = 0%Qc).
Proof.
  intros G Hb Hr.
  destruct (N.le_gt_cases a b) as [Hab|Hab].
  2:{ rewrite for_range_nop by lia. exists true. split; [reflexivity|]. split; [lia | reflexivity]. }
  (* the positions before (i', j') in the order of the scan hold zeros *)
  pose (Z := fun i' j' => forall i j, a <= i -> lo i <= j < hi i -> i < i' \/ (i = i' /\ j < j') ->
                                      fm_of A i j = 0%Qc).
  destruct (for_range_inv (fun i ok => ok = true <-> Z i 0) a b
    (fun i ok => for_range (lo i) (hi i) (fun j (ok : bool) =>
       if ok then do e <- mget A i j; Ok (x_is_zero e) else Ok false) ok) true) as (r & E & HP).
  - assumption.
  - split; [intros _ i j; lia | reflexivity].
  - intros i ok Hi HPi.
    destruct (for_range_inv (fun j ok' => ok' = true <-> Z i j) (lo i) (hi i) (fun j (ok : bool) =>
       if ok then do e <- mget A i j; Ok (x_is_zero e) else Ok false) ok) as (r & E & HQ).
    + apply Hr, Hi.
    + rewrite HPi. split; intros H i0 j0 H1 H2 [H3|[-> H3]]; try lia; apply H; auto.
    + intros j ok' Hj HQj. specialize (Hr i Hi). rewrite (tri_body A n i j ok' G) by lia.
      eexists; split; [reflexivity|]. rewrite (and_zero_iff ok' _ _ HQj). split.
      * intros [H1 H2] i0 j0 H3 H4 [H5|[-> H5]]; [apply H1; auto|].
        destruct (N.eq_dec j0 j) as [->|ne]; [exact H2 | apply H1; try assumption; lia].
      * intros H. split; [intros i0 j0 H1 H2 H3 | ]; apply H; lia.
    + exists r. split; [exact E|]. rewrite HQ.
      split; intros H i0 j0 H1 H2 H3; apply H; try assumption; [|lia].
      destruct (N.eq_dec i0 i) as [->|ne]; lia.
  - exists r. split; [exact E|]. rewrite HP. split.
    + intros H i j Hi Hj. apply H; lia.
    + intros H i j H1 H2 H3. apply H; lia.
Qed.

(* is_lower: true iff everything below the diagonal is zero, [upper_tri] of DenseSpec *)
Theorem is_lower_spec A n :
  good A n n ->
  exists b, is_lower A = Ok b /\ (b = true <-> upper_tri n (fm_of A)).
Proof.
  intros G. pose proof G as (_ & _ & Hr & _). unfold is_lower. rewrite Hr.
  destruct (zero_scan A n 1 n (fun _ => 0) (fun i => i) G) as (b & E & H); [lia | intros; lia |].
  exists b. split; [exact E|]. rewrite H. unfold upper_tri.
  split; intros H' i j Hi Hj; apply H'; lia.
Qed.

(* is_upper: true iff everything above the diagonal is zero, [lower_tri] of DenseSpec *)
Theorem is_upper_spec A n :
  good A n n -> 0 < n ->
  exists b, is_upper A = Ok b /\ (b = true <-> lower_tri n (fm_of A)).
Proof.
  intros G Hn. pose proof G as (_ & _ & Hr & _). unfold is_upper. rewrite Hr.
  destruct (N.eqb_spec n 0); [lia|].
  destruct (zero_scan A n 0 (n - 1) (fun i => i + 1) (fun _ => n) G) as (b & E & H); [lia | intros; lia |].
  exists b. split; [exact E|]. rewrite H. unfold lower_tri.
  split; [intros H' i j Hi Hj Hij | intros H' i j Hi Hj]; apply H'; lia.
Qed.

Lemma diag_loop A n :
  good A n n -> 1 <= n ->
  (do d0 <- rd (dm A) 0;
   for_range 1 n (fun i det => do e <- rd (dm A) (i * n + i); Ok (xmul det e)) d0) =
  Ok (Fin (diag_prod (N.to_nat n) (fm_of A))).
Proof.
  intros G Hn. pose proof G as (W & F & Hr & Hc).
  rewrite (good_rd A n 0 G) by nia. cbn [bind].
  pose (P := fun (i : N) (d : qx) => d = Fin (diag_prod (N.to_nat i) (fm_of A))).
  destruct (for_range_inv P 1 n
    (fun i det => do e <- rd (dm A) (i * n + i); Ok (xmul det e))
    (Fin (qv (nthx (dm A) 0)))) as (d & E & HP).
  - assumption.
  - unfold P. f_equal. change (N.to_nat 1) with 1%nat. cbn [diag_prod N.of_nat].
    unfold fm_of. rewrite (val_flat A n) by assumption.
    replace (0 * n + 0) with 0 by lia. ring.
  - intros i d [Hi1 Hi] HPi. unfold P in HPi. subst d.
    rewrite (good_rd A n _ G) by (apply idx_lt; lia). cbn [bind]. rewrite xmul_fin.
    eexists; split; [reflexivity|]. unfold P. f_equal.
    replace (N.to_nat (i + 1)) with (S (N.to_nat i)) by lia. cbn [diag_prod].
    rewrite N2Nat.id. unfold fm_of at 2. rewrite (val_flat A n) by assumption. reflexivity.
  - rewrite E. unfold P in HP. now rewrite HP.
Qed.

Definition bareis_cell (n k i j : N) (m : list qx) : res (list qx) :=
  do bkk <- rd m (k * n + k);
  do bij <- rd m (i * n + j);
  do bik <- rd m (i * n + k);
  do bkj <- rd m (k * n + j);
  let d := xsub (xmul bkk bij) (xmul bik bkj) in
  if 0 <? k then
    do p <- rd m ((k - 1) * n + k - 1);
    wr m (i * n + j) (xdiv d p)
  else wr m (i * n + j) d.

Definition bareis_upd (n k : N) (m : list qx) : res (list qx) :=
  for_range (k + 1) n (fun i m =>
    for_range (k + 1) n (fun j m => bareis_cell n k i j m) m) m.

Definition pivot_sel (n k : N) (m : list qx) (neg : bool) (bkk : qx)
  : res (list qx * bool * bool) :=
  if x_is_zero bkk then
    do i <- bareis_find (N.to_nat (n - (k + 1))) (k + 1) m n k;
    if i =? n then Ok (m, neg, true)
    else do m <- row_exchange m n i k; Ok (m, negb neg, false)
  else Ok (m, neg, false).

Definition bareis_body (n k : N) (st : list qx * bool * bool) : res (list qx * bool * bool) :=
  let '(m, neg, fin) := st in
  if fin then Ok st else
  do bkk <- rd m (k * n + k);
  do st2 <- pivot_sel n k m neg bkk;
  let '(m, neg, fin) := st2 in
  if fin then Ok st2 else
  do m <- bareis_upd n k m;
  Ok (m, neg, false).

Lemma det_bareis_unfold4 A n :
  drow A = n -> 4 <= n ->
  det_bareis A =
  do lo <- is_lower A;
  do up <- (if lo then Ok true else is_upper A);
  if up then
    do d0 <- rd (dm A) 0;
    for_range 1 n (fun i det => do e <- rd (dm A) (i * n + i); Ok (xmul det e)) d0
  else
    do st <- for_range 0 (n - 1) (bareis_body n) (dm A, false, false);
    let '(m, neg, fin) := st in
    if fin then Ok x0
    else do e <- rd m (n * n - 1); Ok (if neg then xmul xm1 e else e).
Proof.
  intros Hr Hn. unfold det_bareis. cbv zeta. rewrite Hr.
  destruct (N.eqb_spec n 1); [lia|]. destruct (N.eqb_spec n 2); [lia|].
  destruct (N.eqb_spec n 3); [lia|]. destruct (N.eqb_spec n 0); [lia|]. reflexivity.
Qed.

(* the triangular shortcut: the product of the diagonal, which is the determinant *)
Theorem det_bareis_tri A n :
  good A n n -> 4 <= n ->
  is_lower A = Ok true \/ (is_lower A = Ok false /\ is_upper A = Ok true) ->
  det_bareis A = Ok (Fin (diag_prod (N.to_nat n) (fm_of A))) /\
  diag_prod (N.to_nat n) (fm_of A) = det (N.to_nat n) (fm_of A).
Proof.
  intros G Hn Htri. pose proof G as (W & F & Hr & Hc).
  split.
  - rewrite (det_bareis_unfold4 A n Hr Hn).
    destruct Htri as [HL | [HL HU]].
    + rewrite HL. cbn [bind]. apply diag_loop; [assumption | lia].
    + rewrite HL. cbn [bind]. rewrite HU. cbn [bind]. apply diag_loop; [assumption | lia].
  - symmetry. destruct Htri as [HL | [HL HU]].
    + destruct (is_lower_spec A n G) as (b & E & Hb). rewrite HL in E. inversion E; subst b.
      apply det_upper_tri. rewrite N2Nat.id. now apply Hb.
    + destruct (is_upper_spec A n G) as (b & E & Hb); [lia|]. rewrite HU in E. inversion E; subst b.
      apply det_lower_tri. rewrite N2Nat.id. now apply Hb.
Qed.

Corollary det_bareis_tri_det A n :
  good A n n -> 4 <= n ->
  is_lower A = Ok true \/ (is_lower A = Ok false /\ is_upper A = Ok true) ->
  det_bareis A = Ok (Fin (det (N.to_nat n) (fm_of A))).
Proof.
  intros G Hn Htri. destruct (det_bareis_tri A n G Hn Htri) as [E1 E2]. now rewrite <- E2.
Qed.
