(* C24 obligation: LU under the guard 'no zero pivot met': L unit lower, U upper, L*U = A *)
From SE Require Import C24.DenseModel C24.DenseBase C24.DenseSpec C24.DenseLU3.
Local Open Scope N_scope.
Local Open Scope res_scope.
Theorem C24_LU_spec :
  forall A L0 U0 n,
  good A n n -> wf L0 -> drow L0 = n -> dcol L0 = n -> drow U0 = n -> dcol U0 = n ->
  lu_guard n (fm_of A) ->
  exists L U, LU A L0 U0 = Ok (L, U) /\ good L n n /\ good U n n /\
    unit_diag n (fm_of L) /\ lower_tri n (fm_of L) /\ upper_tri n (fm_of U) /\
    (forall j, j + 1 < n -> fm_of U j j <> 0%Qc) /\
    fm_eq n n (fm_mul n (fm_of L) (fm_of U)) (fm_of A).
Proof. exact LU_spec. Qed.
Print Assumptions C24_LU_spec.
