(* C24 -- pivoted_gauss_jordan_elimination and reduced_row_echelon_form (normalize_last =
   false) of the model: total correctness on rational matrices of every size.  The result
   is row equivalent to the input and in reduced row echelon form; the pivot columns
   returned by reduced_row_echelon_form are exactly the pivot columns of that form. *)
From SE Require Import C24.DenseModel C24.DenseBase C24.DenseSpec C24.DenseOps2 C24.DenseGJ.
From SE Require Export C24.DenseOps.
From Coq Require Import Lia ZifyBool ZifyNat ZifyN.
Local Open Scope N_scope.
Local Open Scope res_scope.

(* the eliminating loop of pivoted_gauss_jordan_elimination *)
Definition gj_elim (row col index i : N) (m : list qx) : res (list qx) :=
  for_range 0 row (fun j m =>
    if j =? index then Ok m else
    do bji <- rd m (j * col + i);
    row_add_row m col j index (xmul xm1 bji)) m.

(* the body of its column loop *)
Definition gj_body (row col : N) (i : N) (st : est) : res est :=
  let '(m, pl, index) := st in
  if index =? row then Ok st else
  do ps <- pivot_step m pl row col index i;
  match ps with
  | None => Ok st
  | Some (m, pl) =>
      do p <- rd m (index * col + i);
      do m <- row_mul_scalar m col index (xdiv x1 p);
      do m <- gj_elim row col index i m;
      Ok (m, pl, index + 1)
  end.

Lemma pgj_unfold A B pl0 :
  pivoted_gauss_jordan_elimination A B pl0 =
  do st <- for_range 0 (dcol A) (gj_body (drow A) (dcol A)) (dm A, pl0, 0);
  let '(m, pl, _) := st in Ok (setm B m, pl).
Proof. reflexivity. Qed.

(* the pivot-column scan of reduced_row_echelon_form *)
Definition rref_scan (nl : bool) (b : dmat) : res (dmat * list N * N) :=
  for_range 0 (dcol b) (fun col (st : dmat * list N * N) =>
    let '(b, pc, row) := st in
    if row <? drow b then
      do e <- mget b row col;
      if x_is_zero e then Ok st
      else
        do b <- (if (row =? 0) && nl
                 then mul_scalar_inplace b (xdiv x1 e) else Ok b);
        Ok (b, pc ++ [col], row + 1)
    else Ok st) (b, [], 0).

Lemma rref_unfold A B :
  reduced_row_echelon_form A B false =
  do r <- pivoted_gauss_jordan_elimination A B [];
  do st <- rref_scan false (fst r);
  let '(b, pc, _) := st in Ok (b, pc).
Proof. reflexivity. Qed.

Lemma gj_elim_spec m r c M idx i :
  repr m r c M -> idx < r -> i < c ->
  exists m', gj_elim r c idx i m = Ok m' /\ repr m' r c (fm_elim idx i M).
Proof.
  intros HR Hidx Hi. unfold gj_elim.
  pose (F := fun (t a b : N) => if a <? t then fm_elim idx i M a b else M a b).
  apply (repr_loop r c F M); [lia | exact HR | | |].
  - intros a b _ _. unfold F. ffj_cases; reflexivity.
  - intros t s [_ Ht] HRs. destruct (N.eqb_spec t idx) as [->|ne].
    + exists s. split; [reflexivity|]. apply (repr_ext _ _ _ _ _ HRs).
      intros a b _ _. unfold F, fm_elim. ffj_cases; reflexivity.
    + rewrite (repr_rd s r c _ HRs) by lia. cbn [bind]. rewrite xmul_m1_fin.
      apply (repr_addrow s r c (F t)); try assumption.
      intros a b _ _. unfold fm_addrow, F, fm_elim. ffj_cases; reflexivity.
  - intros a b Ha _. unfold F. ffj_cases; reflexivity.
Qed.

Lemma qcinv_nz (p : Qc) : p <> 0%Qc -> (/ p)%Qc <> 0%Qc.
Proof.
  intros Hp H0. apply (Qcmult_inv_l p) in Hp. rewrite H0 in Hp. rewrite Qcmult_0_l in Hp.
  symmetry in Hp. now apply Q_apart_0_1 in Hp.
Qed.

Lemma qcdiv_1_r (v : Qc) : (v / 1 = v)%Qc.
Proof. field. exact Q_apart_0_1. Qed.

Lemma qcdiv_nz (a e : Qc) : a <> 0%Qc -> e <> 0%Qc -> (a / e)%Qc <> 0%Qc.
Proof.
  intros Ha He H. unfold Qcdiv in H. apply Qcmult_integral in H. destruct H as [H|H].
  - contradiction.
  - now apply (qcinv_nz e He).
Qed.

(* pivot_step without reference to the shape of the matrix: the pivot row k is exchanged
   with row idx (fm_swap idx idx is the identity) *)
Lemma pivot_step_gen m pl r c M idx i :
  repr m r c M -> idx < r -> i < c ->
  (pivot_step m pl r c idx i = Ok None /\
   forall a, idx <= a -> a < r -> M a i = 0%Qc) \/
  (exists m1 pl1 k, pivot_step m pl r c idx i = Ok (Some (m1, pl1)) /\
     idx <= k /\ k < r /\ repr m1 r c (fm_swap k idx M) /\ M k i <> 0%Qc).
Proof.
  intros [HL HV] Hlt Hi. unfold pivot_step.
  destruct (pivot_spec m r c idx i HL) as (k & Ek & Hk & Hz & Hnz); [lia | lia |].
  rewrite Ek. cbn [bind].
  destruct (N.eqb_spec k r) as [->|ner].
  - left. split; [reflexivity|]. intros a Ha Har.
    specialize (Hz a ltac:(lia)). rewrite HV in Hz by assumption. now apply x_is_zero_fin in Hz.
  - right. assert (Hkr : k < r) by lia.
    specialize (Hnz Hkr). rewrite HV in Hnz by assumption. cbn [x_is_zero] in Hnz.
    apply qc_is_zero_false in Hnz.
    destruct (N.eqb_spec k idx) as [->|nei].
    + exists m, pl, idx. split; [reflexivity|]. split; [lia|]. split; [assumption|].
      split; [|assumption]. apply (repr_ext m r c M _ (conj HL HV)).
      intros a b _ _. unfold fm_swap. destruct (N.eqb_spec a idx); [subst|]; reflexivity.
    + destruct (repr_swap m r c M k idx (conj HL HV) Hkr Hlt nei) as (m1 & E1 & HR1).
      rewrite E1. cbn [bind].
      exists m1, (pl ++ [(k, idx)]), k.
      split; [reflexivity|]. split; [lia|]. split; [assumption|]. split; assumption.
Qed.

Lemma fm_swap_snd a b (M : fm) j : fm_swap a b M b j = M a j.
Proof. unfold fm_swap. destruct (N.eqb_spec b a); [subst; reflexivity | now rewrite N.eqb_refl]. Qed.

(* with a partial echelon form above row lenN pc: the exchange keeps it, and the rows above *)
Lemma pivot_step_echelon lead clr m pl r c M pc i :
  repr m r c M -> echelon lead clr r i M pc -> lenN pc < r -> i < c ->
  (pivot_step m pl r c (lenN pc) i = Ok None /\
   forall a, lenN pc <= a -> a < r -> M a i = 0%Qc) \/
  (exists m1 pl1 M1, pivot_step m pl r c (lenN pc) i = Ok (Some (m1, pl1)) /\
     repr m1 r c M1 /\ row_equiv r c M M1 /\ echelon lead clr r i M1 pc /\
     M1 (lenN pc) i <> 0%Qc /\ (forall a b, a < lenN pc -> M1 a b = M a b)).
Proof.
  intros HR Hrr Hlt Hi.
  destruct (pivot_step_gen m pl r c M (lenN pc) i HR Hlt Hi)
    as [H | (m1 & pl1 & k & E & Hk1 & Hk2 & HR1 & Hp)]; [now left|].
  right. exists m1, pl1, (fm_swap k (lenN pc) M).
  split; [exact E|]. split; [exact HR1|]. split; [now apply re_swap|].
  split; [apply echelon_swap; assumption || lia|]. split; [now rewrite fm_swap_snd|].
  intros a b Ha. unfold fm_swap.
  destruct (N.eqb_spec a k); [lia|]. destruct (N.eqb_spec a (lenN pc)); [lia | reflexivity].
Qed.

Definition gj_inv (r c : N) (A0 : fm) (i : N) (st : est) : Prop :=
  let '(m, pl, index) := st in
  exists M pc, repr m r c M /\ row_equiv r c A0 M /\ index = lenN pc /\ is_rref r i M pc.

Lemma gj_step r c A0 i st :
  i < c -> gj_inv r c A0 i st ->
  exists st', gj_body r c i st = Ok st' /\ gj_inv r c A0 (i + 1) st'.
Proof.
  destruct st as [[m pl] index]. intros Hi (M & pc & HR & HE & -> & Hrr).
  unfold gj_body.
  assert (Hle : lenN pc <= r) by (destruct Hrr as (_ & H & _); exact H).
  destruct (N.eqb_spec (lenN pc) r) as [e|ne].
  - exists (m, pl, lenN pc). split; [reflexivity|]. exists M, pc.
    split; [assumption|]. split; [assumption|]. split; [reflexivity|].
    apply is_rref_skip; [assumption|]. intros; lia.
  - assert (Hlt : lenN pc < r) by lia.
    destruct (pivot_step_echelon (fun x => x = 1%Qc) (fun k a => a <> k) m pl r c M pc i HR Hrr Hlt Hi)
      as [[E Hz] | (m1 & pl1 & M1 & E & HR1 & HE1 & Hrr1 & Hp & _)]; rewrite E; cbn [bind].
    + exists (m, pl, lenN pc). split; [reflexivity|]. exists M, pc.
      split; [assumption|]. split; [assumption|]. split; [reflexivity|].
      now apply is_rref_skip.
    + rewrite (repr_rd m1 r c M1 HR1) by assumption. cbn [bind].
      rewrite xdiv_one_fin by assumption.
      set (p := M1 (lenN pc) i) in *.
      destruct (repr_scale m1 r c M1 (lenN pc) (/ p)%Qc HR1 Hlt) as (m2 & E2 & HR2).
      rewrite E2. cbn [bind].
      destruct (gj_elim_spec m2 r c _ (lenN pc) i HR2 Hlt Hi) as (m3 & E3 & HR3).
      rewrite E3. cbn [bind].
      exists (m3, pl1, lenN pc + 1). split; [reflexivity|].
      exists (fm_elim (lenN pc) i (fm_scale (lenN pc) (/ p)%Qc M1)), (pc ++ [i]).
      split; [assumption|]. split; [|split].
      * eapply re_trans; [exact HE|]. eapply re_trans; [exact HE1|].
        eapply re_trans; [apply (re_scale r c M1 _ (/ p)%Qc Hlt); now apply qcinv_nz|].
        now apply fm_elim_equiv.
      * now rewrite lenN_snoc.
      * apply is_rref_elim; [|assumption|].
        -- apply is_rref_scale; [assumption | lia | assumption].
        -- unfold fm_scale. rewrite N.eqb_refl. fold p. now apply Qcmult_inv_l.
Qed.

(* pivoted_gauss_jordan_elimination on an r x c matrix of rationals: total, the result is a
   good r x c matrix, row equivalent to A, in reduced row echelon form; the number of
   pivots is the final value of `index` *)
Theorem pivoted_gauss_jordan_spec A B r c :
  good A r c -> drow B = r -> dcol B = c ->
  exists B' pl, pivoted_gauss_jordan_elimination A B [] = Ok (B', pl) /\ good B' r c /\
    row_equiv r c (fm_of A) (fm_of B') /\ exists pc, is_rref r c (fm_of B') pc.
Proof.
  intros HG Hr Hc. rewrite pgj_unfold. pose proof HG as (_ & _ & HrA & HcA). rewrite HrA, HcA.
  destruct (for_range_inv (gj_inv r c (fm_of A)) 0 c (gj_body r c) (dm A, [], 0))
    as ([[m pl] index] & E & M & pc & HR & HE & _ & Hrr).
  - lia.
  - exists (fm_of A), []. split; [now apply good_repr|]. split; [|split].
    + apply re_refl. intros a b _ _. reflexivity.
    + reflexivity.
    + apply is_rref_nil.
  - intros i st [_ Hi] Hinv. now apply gj_step.
  - rewrite E. cbn [bind].
    destruct (repr_setm m r c M B _ HR Hr Hc HE) as (HG' & HE' & HF).
    exists (setm B m), pl. split; [reflexivity|]. split; [assumption|]. split; [assumption|].
    exists pc. now apply is_rref_ext with (M := M).
Qed.

Lemma mul_scalar_inplace_good b r c k :
  good b r c ->
  exists b', mul_scalar_inplace b (Fin k) = Ok b' /\ good b' r c /\
    fm_eq r c (fm_of b') (fun i j => (fm_of b i j * k)%Qc).
Proof.
  intros (Wb & Fb & Hr & Hc).
  destruct (mul_scalar_inplace_spec b (Fin k) Wb) as (b' & E & Wb' & Hr' & Hc' & Hv).
  exists b'. split; [exact E|].
  apply (good_of_entries b' r c _ Wb'); [congruence | congruence |].
  intros i j Hi Hj. rewrite Hv by lia. rewrite (fin_entry b i j Wb Fb) by lia. apply xmul_fin.
Qed.

(* the scan has found the pivot columns pc (pc0 = pc ++ rest) and column j is not to the
   right of the next one: in row lenN pc, column j holds 0, or it is the next pivot column
   and holds 1 *)
Lemma rref_next_column r c N0 pc0 pc rest j :
  is_rref r c N0 pc0 -> pc0 = pc ++ rest -> lenN pc < r -> j < c ->
  (forall k, lenN pc <= k -> k < lenN pc0 -> j <= nthN pc0 k) ->
  (N0 (lenN pc) j = 0%Qc /\ forall k, lenN pc <= k -> k < lenN pc0 -> j + 1 <= nthN pc0 k) \/
  (exists rest', rest = j :: rest' /\ N0 (lenN pc) j = 1%Qc /\
     forall k, lenN pc + 1 <= k -> k < lenN pc0 -> j + 1 <= nthN pc0 k).
Proof.
  intros (Hinc & Hle & Hpiv & Hzero) Hpc Hlt Hj Hge. destruct rest as [|p rest'].
  - left. rewrite app_nil_r in Hpc. subst pc0. split; [apply Hzero; lia | intros; lia].
  - assert (Hlen : lenN pc0 = lenN pc + 1 + lenN rest') by (rewrite Hpc, lenN_app, lenN_cons; lia).
    assert (Hp : nthN pc0 (lenN pc) = p) by (rewrite Hpc; apply nthN_middle).
    assert (Hpj : j <= p) by (rewrite <- Hp; apply Hge; lia).
    assert (Hlater : forall k, lenN pc + 1 <= k -> k < lenN pc0 -> p + 1 <= nthN pc0 k).
    { intros k Hk1 Hk2. rewrite <- Hp.
      pose proof (increasing_nthN pc0 (lenN pc) k Hinc ltac:(lia) Hk2). lia. }
    destruct (Hpiv (lenN pc)) as (_ & P2 & P3 & _); [lia|]. rewrite Hp in P2, P3.
    destruct (N.eq_dec p j) as [->|nej].
    + right. exists rest'. split; [reflexivity|]. split; [exact P2 | exact Hlater].
    + left. split; [apply P3; lia|]. intros k Hk1 Hk2.
      destruct (N.eq_dec k (lenN pc)) as [->|nek]; [rewrite Hp; lia|].
      specialize (Hlater k ltac:(lia) Hk2). lia.
Qed.

(* on a good matrix b that is d times a reduced row echelon form with pivot columns pc0 the
   scan returns exactly pc0; with normalize_last it divides b by the first pivot it meets,
   without it b is returned as it is (and d is 1) *)
Lemma rref_scan_gen nl b r c pc0 d :
  good b r c -> d <> 0%Qc -> (nl = false -> d = 1%Qc) -> is_rref r c (fm_div d (fm_of b)) pc0 ->
  exists b', rref_scan nl b = Ok (b', pc0, lenN pc0) /\ good b' r c /\
    (lenN pc0 = 0 \/ nl = false -> b' = b) /\
    (0 < lenN pc0 -> fm_eq r c (fm_of b') (fm_div d (fm_of b))).
Proof.
  intros HG Hd Hd1 Hrr. pose proof HG as (Wb & Fb & Hr & Hc).
  pose proof Hrr as (Hinc & Hle & Hpiv & Hzero). unfold rref_scan.
  set (N0 := fm_div d (fm_of b)) in *.
  (* before column j the scan has met the pivot columns pc, and the others lie at or right
     of j.  The matrix is b itself until the first pivot is met; there it is divided by its
     leading entry d if nl is set (d = 1 otherwise), and is N0 from then on.  So the entry
     tested in row lenN pc is d times that of N0, or that of N0 (He): zero exactly when
     N0's is, and rref_next_column says when that is. *)
  pose (Q := fun (j : N) (st : dmat * list N * N) =>
    let '(b', pc, row) := st in
    row = lenN pc /\ good b' r c /\ (lenN pc = 0 \/ nl = false -> b' = b) /\
    (0 < lenN pc -> fm_eq r c (fm_of b') N0) /\
    exists rest, pc0 = pc ++ rest /\
      forall k, lenN pc <= k -> k < lenN pc0 -> j <= nthN pc0 k).
  destruct (for_range_inv Q 0 (dcol b) (fun col (st : dmat * list N * N) =>
    let '(b, pc, row) := st in
    if row <? drow b then
      do e <- mget b row col;
      if x_is_zero e then Ok st
      else
        do b <- (if (row =? 0) && nl
                 then mul_scalar_inplace b (xdiv x1 e) else Ok b);
        Ok (b, pc ++ [col], row + 1)
    else Ok st) (b, [], 0)) as (st & E & HQ).
  - lia.
  - split; [reflexivity|]. split; [assumption|]. split; [reflexivity|].
    split; [unfold lenN; cbn; lia|]. exists pc0. split; [reflexivity|]. intros; lia.
  - intros j [[b' pc] row] [_ Hj] (-> & HG' & Hnil & Hcons & rest & Hpc & Hge).
    pose proof HG' as (Wb' & Fb' & Hr' & Hc'). rewrite Hr'. rewrite Hc in Hj.
    destruct (N.ltb_spec (lenN pc) r) as [Hlt|Hnlt].
    + unfold mget. rewrite rd_ok by (rewrite Wb', Hr', Hc'; apply idx_lt; lia). cbn [bind].
      fold (ent (dm b') (dcol b') (lenN pc) j). fold (entry b' (lenN pc) j).
      rewrite (fin_entry b' (lenN pc) j Wb' Fb') by lia. fold (fm_of b' (lenN pc) j).
      assert (He : fm_of b' (lenN pc) j =
                   ((if lenN pc =? 0 then d else 1) * N0 (lenN pc) j)%Qc).
      { destruct (N.eqb_spec (lenN pc) 0) as [e0|n0].
        - rewrite (Hnil (or_introl e0)). unfold N0, fm_div. field. assumption.
        - rewrite (Hcons ltac:(lia)) by lia. ring. }
      rewrite He.
      destruct (rref_next_column r c N0 pc0 pc rest j Hrr Hpc Hlt Hj Hge)
        as [[Hz0 Hge'] | (rest' & -> & H1 & Hge')].
      * rewrite Hz0.
        replace (x_is_zero (Fin ((if lenN pc =? 0 then d else 1) * 0)%Qc)) with true
          by (symmetry; apply x_is_zero_fin; ring).
        exists (b', pc, lenN pc). split; [reflexivity|]. split; [reflexivity|].
        split; [assumption|]. split; [assumption|]. split; [assumption|].
        exists rest. split; assumption.
      * rewrite H1.
        assert (Hs : ((if lenN pc =? 0 then d else 1) * 1)%Qc <> 0%Qc).
        { destruct (lenN pc =? 0); rewrite Qcmult_1_r; [assumption | exact Q_apart_0_1]. }
        destruct (x_is_zero (Fin ((if lenN pc =? 0 then d else 1) * 1)%Qc)) eqn:Ez.
        { apply x_is_zero_fin in Ez. contradiction. }
        assert (Hdone : forall b2, good b2 r c ->
                  (lenN (pc ++ [j]) = 0 \/ nl = false -> b2 = b) -> fm_eq r c (fm_of b2) N0 ->
                  Q (j + 1) (b2, pc ++ [j], lenN pc + 1)).
        { intros b2 HG2 Hb2 HF2. split; [now rewrite lenN_snoc|]. split; [assumption|].
          split; [assumption|]. split; [intros _; exact HF2|].
          exists rest'. split; [now rewrite <- app_assoc | now rewrite lenN_snoc]. }
        destruct (N.eqb_spec (lenN pc) 0) as [e0|n0]; [destruct nl|]; cbn [andb].
        -- rewrite Qcmult_1_r. rewrite xdiv_one_fin by assumption.
           destruct (mul_scalar_inplace_good b' r c (/ d)%Qc HG') as (b2 & E2 & HG2 & HF2).
           rewrite E2. cbn [bind]. eexists; split; [reflexivity|]. apply Hdone; [assumption| |].
           ++ rewrite lenN_snoc. intros [H|H]; [lia | discriminate].
           ++ intros a b0 Ha Hb0. rewrite HF2 by assumption. rewrite (Hnil (or_introl e0)).
              unfold N0, fm_div, Qcdiv. reflexivity.
        -- cbn [bind]. eexists; split; [reflexivity|]. apply Hdone; [assumption | |].
           ++ intros _. apply Hnil. now left.
           ++ intros a b0 _ _. rewrite (Hnil (or_introl e0)). unfold N0, fm_div.
              rewrite (Hd1 eq_refl). now rewrite qcdiv_1_r.
        -- cbn [bind]. eexists; split; [reflexivity|]. apply Hdone; [assumption | |].
           ++ intros [H|H]; [rewrite lenN_snoc in H; lia | apply Hnil; now right].
           ++ apply Hcons. lia.
    + exists (b', pc, lenN pc). split; [reflexivity|]. split; [reflexivity|].
      split; [assumption|]. split; [assumption|]. split; [assumption|].
      exists rest. split; [assumption|]. intros; lia.
  - destruct st as [[b' pc] row]. destruct HQ as (-> & HG' & Hnil & Hcons & rest & Hpc & Hge).
    destruct rest as [|p rest'].
    + rewrite app_nil_r in Hpc. subst pc0. exists b'. split; [exact E|].
      split; [assumption|]. split; assumption.
    + exfalso.
      assert (Hlen : lenN pc0 = lenN pc + 1 + lenN rest').
      { rewrite Hpc, lenN_app, lenN_cons. lia. }
      specialize (Hge (lenN pc) ltac:(lia) ltac:(lia)).
      destruct (Hpiv (lenN pc)) as (P1 & _); lia.
Qed.

Lemma rref_scan_spec b r c pc0 :
  good b r c -> is_rref r c (fm_of b) pc0 ->
  rref_scan false b = Ok (b, pc0, lenN pc0).
Proof.
  intros HG Hrr.
  destruct (rref_scan_gen false b r c pc0 1%Qc HG Q_apart_0_1 (fun _ => eq_refl))
    as (b' & E & _ & Hb & _).
  - apply (is_rref_ext r c (fm_of b)); [|assumption].
    intros i j _ _. unfold fm_div. now rewrite qcdiv_1_r.
  - rewrite (Hb (or_intror eq_refl)) in E. exact E.
Qed.

(* the pivot columns of a reduced row echelon form are determined by the matrix *)
Corollary is_rref_pivots_unique b r c pc pc' :
  good b r c -> is_rref r c (fm_of b) pc -> is_rref r c (fm_of b) pc' -> pc = pc'.
Proof.
  intros HG H1 H2.
  pose proof (rref_scan_spec b r c pc HG H1) as E1.
  pose proof (rref_scan_spec b r c pc' HG H2) as E2.
  rewrite E1 in E2. congruence.
Qed.

(* reduced_row_echelon_form(A, B, pivot_cols, normalize_last = false): B' is the result of
   pivoted_gauss_jordan_elimination, and pivot_cols is the list of pivot columns of its
   reduced row echelon form (so its length is the rank) *)
Theorem reduced_row_echelon_form_spec A B r c :
  good A r c -> drow B = r -> dcol B = c ->
  exists B' pc, reduced_row_echelon_form A B false = Ok (B', pc) /\
    (exists pl, pivoted_gauss_jordan_elimination A B [] = Ok (B', pl)) /\
    good B' r c /\ row_equiv r c (fm_of A) (fm_of B') /\ is_rref r c (fm_of B') pc /\
    (forall pc', is_rref r c (fm_of B') pc' -> pc' = pc).
Proof.
  intros HG Hr Hc.
  destruct (pivoted_gauss_jordan_spec A B r c HG Hr Hc) as (B' & pl & E & HG' & HE & pc & Hrr).
  exists B', pc. rewrite rref_unfold, E. cbn [bind fst].
  rewrite (rref_scan_spec B' r c pc HG' Hrr). cbn [bind].
  split; [reflexivity|]. split; [now exists pl|]. split; [assumption|]. split; [assumption|].
  split; [assumption|]. intros pc' H'. now apply (is_rref_pivots_unique B' r c).
Qed.

(* consequence: A x = 0 and B' x = 0 have the same solutions *)
Corollary reduced_row_echelon_form_null_space A B r c B' pc :
  good A r c -> drow B = r -> dcol B = c ->
  reduced_row_echelon_form A B false = Ok (B', pc) ->
  forall s x, null_sol r c s (fm_of A) x <-> null_sol r c s (fm_of B') x.
Proof.
  intros HG Hr Hc E.
  destruct (reduced_row_echelon_form_spec A B r c HG Hr Hc) as (B'' & pc'' & E' & _ & _ & HE & _).
  rewrite E in E'. inversion E'; subst. now apply row_equiv_null_sol.
Qed.
