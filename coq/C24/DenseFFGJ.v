(* C24 -- pivoted_fraction_free_gauss_jordan_elimination of the model: total correctness on
   rational matrices of every size.  The result is row equivalent to the input and is a
   non-zero multiple d of a reduced row echelon form ("scaled rref"): every pivot holds the
   same value d, the last pivot found.
   Over Q one column step is, for every row j <> index,
       row_j := (p / d) * row_j - (B[j,i] / d) * row_index        (p = B[index,i] <> 0)
   with d the previous pivot (1 before the first pivot: the C++ does not divide then). *)
From SE Require Import C24.DenseModel C24.DenseBase C24.DenseSpec C24.DenseOps C24.DenseOps2 C24.DenseGJ C24.DenseGJ2.
From Coq Require Import Lia ZifyBool ZifyNat ZifyN.
Local Open Scope N_scope.
Local Open Scope res_scope.

Lemma ffj_qcdiv_mul (a d : Qc) : d <> 0%Qc -> (a = a / d * d)%Qc.
Proof. intros Hd. field. assumption. Qed.

(* the fraction-free Gauss-Jordan step on column i with pivot row idx and divisor d *)
Definition fm_ffjelim (idx i : N) (d : Qc) (M : fm) : fm :=
  fun a b => if a =? idx then M a b else ((M idx i * M a b - M a i * M idx b) / d)%Qc.

Lemma fm_ffjelim_equiv r c idx i d M :
  idx < r -> d <> 0%Qc -> M idx i <> 0%Qc -> row_equiv r c M (fm_ffjelim idx i d M).
Proof.
  intros Hidx Hd Hp.
  eapply re_trans.
  - apply (fm_comb_equiv r c idx (fun _ => (M idx i / d)%Qc) (fun a => (- M a i / d)%Qc) M r Hidx).
    + intros _ _. now apply qcdiv_nz.
    + lia.
  - apply re_refl. intros a b Ha _. unfold fm_comb, fm_ffjelim.
    ffj_cases; try reflexivity. field. assumption.
Qed.

(* multiplying the whole matrix by a non-zero constant *)
Lemma fm_scale_all_equiv r c k M :
  k <> 0%Qc -> row_equiv r c M (fun a b => (k * M a b)%Qc).
Proof.
  intros Hk. destruct (N.eq_dec r 0) as [->|Hr].
  - apply re_refl. intros a b Ha _. lia.
  - eapply re_trans.
    + apply (fm_comb_equiv r c 0 (fun _ => k) (fun _ => 0%Qc) M r); [lia | now intros | lia].
    + eapply re_trans; [apply (re_scale r c _ 0 k); [lia | assumption]|].
      apply re_refl. intros a b Ha _. unfold fm_scale, fm_comb.
      ffj_cases; ring.
Qed.

(* the scaled partial rref is preserved by a row exchange below the pivots *)
Lemma is_rref_div_swap r i M pc d a b :
  is_rref r i (fm_div d M) pc -> lenN pc <= a -> a < r -> lenN pc <= b -> b < r ->
  is_rref r i (fm_div d (fm_swap a b M)) pc.
Proof.
  intros H Ha Har Hb Hbr.
  apply is_rref_ext with (M := fm_swap a b (fm_div d M)).
  - intros x y _ _. unfold fm_swap, fm_div. ffj_cases; reflexivity.
  - now apply is_rref_swap.
Qed.

Lemma is_rref_div_skip r i M pc d :
  d <> 0%Qc -> is_rref r i (fm_div d M) pc -> (forall a, lenN pc <= a -> a < r -> M a i = 0%Qc) ->
  is_rref r (i + 1) (fm_div d M) pc.
Proof.
  intros Hd H Hz. apply is_rref_skip; [assumption|].
  intros a Ha Har. unfold fm_div. rewrite Hz by assumption. field. assumption.
Qed.

(* the step: d times an rref on i columns becomes p times an rref on i + 1 columns *)
Lemma is_rref_ffjelim r i M pc d :
  d <> 0%Qc -> is_rref r i (fm_div d M) pc -> lenN pc < r -> M (lenN pc) i <> 0%Qc ->
  is_rref r (i + 1) (fm_div (M (lenN pc) i) (fm_ffjelim (lenN pc) i d M)) (pc ++ [i]).
Proof.
  intros Hd Hrr Hlt Hp.
  apply is_rref_ext
    with (M := fm_elim (lenN pc) i (fm_scale (lenN pc) (/ (M (lenN pc) i / d))%Qc (fm_div d M))).
  - intros a b _ _. unfold fm_elim, fm_scale, fm_div, fm_ffjelim.
    ffj_cases; field; auto.
  - apply is_rref_elim.
    + apply is_rref_scale; [assumption | lia | assumption].
    + assumption.
    + unfold fm_scale, fm_div. rewrite N.eqb_refl. field. auto.
Qed.

(* the k loop: row j *)
Definition ffj_row (col index i j : N) (dopt : option qx) (m : list qx) : res (list qx) :=
  for_range 0 col (fun k m =>
    if k =? i then Ok m else
    do bpi <- rd m (index * col + i);
    do bjk <- rd m (j * col + k);
    do bji <- rd m (j * col + i);
    do bpk <- rd m (index * col + k);
    wr m (j * col + k) (ff_update bpi bjk bji bpk dopt)) m.

(* the j loop *)
Definition ffj_rows (row col index i : N) (dopt : option qx) (m : list qx) : res (list qx) :=
  for_range 0 row (fun j m => if j =? index then Ok m else ffj_row col index i j dopt m) m.

(* the loop that clears column i *)
Definition ffj_zero (row col index i : N) (m : list qx) : res (list qx) :=
  for_range 0 row (fun j m => if j =? index then Ok m else wr m (j * col + i) x0) m.

(* the body of the column loop *)
Definition ffj_body (row col : N) (i : N) (st : est * qx) : res (est * qx) :=
  let '(m, pl, index, d) := st in
  if index =? row then Ok st else
  do ps <- pivot_step m pl row col index i;
  match ps with
  | None => Ok st
  | Some (m, pl) =>
      do m <- ffj_rows row col index i (if index =? 0 then None else Some d) m;
      do d <- rd m (index * col + i);
      do m <- ffj_zero row col index i m;
      Ok (m, pl, index + 1, d)
  end.

Lemma pffgj_unfold A B pl0 :
  pivoted_fraction_free_gauss_jordan_elimination A B pl0 =
  do st <- for_range 0 (dcol A) (ffj_body (drow A) (dcol A)) (dm A, pl0, 0, x0);
  let '(m, pl, _, _) := st in Ok (setm B m, pl).
Proof. reflexivity. Qed.

(* the divisor: the rational d is what the state component dx holds once index > 0; before
   the first pivot the C++ does not divide, which is division by 1 *)
Definition dcond (index : N) (dx : qx) (d : Qc) : Prop :=
  d <> 0%Qc /\ if index =? 0 then d = 1%Qc else dx = Fin d.

Lemma ff_update_fin index dx d p x y z :
  dcond index dx d ->
  ff_update (Fin p) (Fin x) (Fin y) (Fin z) (if index =? 0 then None else Some dx) =
  Fin ((p * x - y * z) / d)%Qc.
Proof.
  intros [Hd H]. unfold ff_update. rewrite !xmul_fin, xsub_fin. destruct (index =? 0).
  - rewrite H, qcdiv_1_r. reflexivity.
  - rewrite H. now rewrite xdiv_fin.
Qed.

Definition fm_ffjrow (idx i j : N) (d : Qc) (M : fm) : fm :=
  fun a b => if (a =? j) && negb (b =? i)
             then ((M idx i * M a b - M a i * M idx b) / d)%Qc else M a b.

Lemma ffj_row_spec m r c M idx i j dx d :
  repr m r c M -> idx < r -> j < r -> j <> idx -> i < c -> dcond idx dx d ->
  exists m', ffj_row c idx i j (if idx =? 0 then None else Some dx) m = Ok m' /\
    repr m' r c (fm_ffjrow idx i j d M).
Proof.
  intros HR Hidx Hj Hne Hi Hdc. unfold ffj_row.
  pose (F := fun (t : N) (a b : N) =>
    if (a =? j) && negb (b =? i) && (b <? t)
    then ((M idx i * M a b - M a i * M idx b) / d)%Qc else M a b).
  apply (repr_loop r c F M); [lia | exact HR | | |].
  - intros a b _ _. unfold F. ffj_cases; reflexivity.
  - intros t s [_ Ht] HRs. destruct (N.eqb_spec t i) as [->|nti].
    + exists s. split; [reflexivity|]. apply (repr_ext _ _ _ _ _ HRs).
      intros a b _ _. unfold F. ffj_cases; reflexivity.
    + rewrite !(repr_rd s r c _ HRs) by lia. cbn [bind].
      rewrite (ff_update_fin idx dx d) by assumption.
      apply (repr_wr s r c (F t)); try assumption.
      intros a b _ _. unfold fm_set, F. clear - nti Hne. ffj_cases; reflexivity.
  - intros a b _ Hb. unfold F, fm_ffjrow. ffj_cases; reflexivity.
Qed.

Definition fm_ffjrows (idx i : N) (d : Qc) (M : fm) : fm :=
  fun a b => if negb (a =? idx) && negb (b =? i)
             then ((M idx i * M a b - M a i * M idx b) / d)%Qc else M a b.

Lemma ffj_rows_spec m r c M idx i dx d :
  repr m r c M -> idx < r -> i < c -> dcond idx dx d ->
  exists m', ffj_rows r c idx i (if idx =? 0 then None else Some dx) m = Ok m' /\
    repr m' r c (fm_ffjrows idx i d M).
Proof.
  intros HR Hidx Hi Hdc. unfold ffj_rows.
  pose (F := fun (t : N) (a b : N) =>
    if (a <? t) && negb (a =? idx) && negb (b =? i)
    then ((M idx i * M a b - M a i * M idx b) / d)%Qc else M a b).
  apply (repr_loop r c F M); [lia | exact HR | | |].
  - intros a b _ _. unfold F. ffj_cases; reflexivity.
  - intros t s [_ Ht] HRs. destruct (N.eqb_spec t idx) as [->|nti].
    + exists s. split; [reflexivity|]. apply (repr_ext _ _ _ _ _ HRs).
      intros a b _ _. unfold F. ffj_cases; reflexivity.
    + destruct (ffj_row_spec s r c (F t) idx i t dx d HRs Hidx Ht nti Hi Hdc) as (s' & E' & HR').
      exists s'. split; [exact E'|]. apply (repr_ext _ _ _ _ _ HR').
      intros a b _ _. unfold fm_ffjrow, F. clear - nti. ffj_cases; reflexivity.
  - intros a b Ha _. unfold F, fm_ffjrows. ffj_cases; reflexivity.
Qed.

Lemma ffj_zero_spec m r c M idx i :
  repr m r c M -> i < c ->
  exists m', ffj_zero r c idx i m = Ok m' /\
    repr m' r c (fun a b => if negb (a =? idx) && (b =? i) then 0%Qc else M a b).
Proof.
  intros HR Hi. unfold ffj_zero.
  pose (F := fun (t : N) (a b : N) =>
    if (a <? t) && negb (a =? idx) && (b =? i) then 0%Qc else M a b).
  apply (repr_loop r c F M); [lia | exact HR | | |].
  - intros a b _ _. unfold F. ffj_cases; reflexivity.
  - intros t s [_ Ht] HRs. destruct (N.eqb_spec t idx) as [->|nti].
    + exists s. split; [reflexivity|]. apply (repr_ext _ _ _ _ _ HRs).
      intros a b _ _. unfold F. clear. ffj_cases; reflexivity.
    + apply (repr_wr s r c (F t)); try assumption.
      intros a b _ _. unfold fm_set, F. clear - nti. ffj_cases; reflexivity.
  - intros a b Ha _. unfold F. ffj_cases; reflexivity.
Qed.

Definition ffj_inv (r c : N) (A0 : fm) (i : N) (st : est * qx) : Prop :=
  let '(m, pl, index, dx) := st in
  exists M pc d, repr m r c M /\ row_equiv r c A0 M /\ index = lenN pc /\
    dcond index dx d /\ is_rref r i (fm_div d M) pc.

Lemma ffj_step r c A0 i st :
  i < c -> ffj_inv r c A0 i st ->
  exists st', ffj_body r c i st = Ok st' /\ ffj_inv r c A0 (i + 1) st'.
Proof.
  destruct st as [[[m pl] index] dx]. intros Hi (M & pc & d & HR & HE & -> & Hdc & Hrr).
  unfold ffj_body.
  assert (Hle : lenN pc <= r) by (destruct Hrr as (_ & H & _); exact H).
  assert (Hd : d <> 0%Qc) by (destruct Hdc; assumption).
  destruct (N.eqb_spec (lenN pc) r) as [e|ne].
  - exists (m, pl, lenN pc, dx). split; [reflexivity|]. exists M, pc, d.
    split; [assumption|]. split; [assumption|]. split; [reflexivity|]. split; [assumption|].
    apply is_rref_skip; [assumption|]. intros; lia.
  - assert (Hlt : lenN pc < r) by lia.
    destruct (pivot_step_gen m pl r c M (lenN pc) i HR Hlt Hi)
      as [[E Hz] | (m1 & pl1 & k & E & Hk1 & Hk2 & HR1 & Hp)]; rewrite E; cbn [bind].
    + exists (m, pl, lenN pc, dx). split; [reflexivity|]. exists M, pc, d.
      split; [assumption|]. split; [assumption|]. split; [reflexivity|]. split; [assumption|].
      now apply is_rref_div_skip.
    + set (M1 := fm_swap k (lenN pc) M) in *.
      pose proof (fm_swap_snd k (lenN pc) M i : M1 (lenN pc) i = M k i) as Hp1.
      assert (HE1 : row_equiv r c M M1) by (apply re_swap; assumption).
      assert (Hrr1 : is_rref r i (fm_div d M1) pc) by (apply is_rref_div_swap; assumption || lia).
      destruct (ffj_rows_spec m1 r c M1 (lenN pc) i dx d HR1 Hlt Hi Hdc) as (m2 & E2 & HR2).
      rewrite E2. cbn [bind].
      rewrite (repr_rd m2 r c _ HR2) by assumption. cbn [bind].
      assert (Ep : fm_ffjrows (lenN pc) i d M1 (lenN pc) i = M k i).
      { unfold fm_ffjrows. rewrite N.eqb_refl. cbn [negb andb]. exact Hp1. }
      rewrite Ep.
      destruct (ffj_zero_spec m2 r c _ (lenN pc) i HR2 Hi) as (m3 & E3 & HR3).
      rewrite E3. cbn [bind].
      exists (m3, pl1, lenN pc + 1, Fin (M k i)). split; [reflexivity|].
      exists (fm_ffjelim (lenN pc) i d M1), (pc ++ [i]), (M k i).
      split; [|split; [|split; [|split]]].
      * apply (repr_ext m3 r c _ _ HR3). intros a b _ _.
        unfold fm_ffjrows, fm_ffjelim.
        ffj_cases; try reflexivity. field. assumption.
      * eapply re_trans; [exact HE|]. eapply re_trans; [exact HE1|].
        apply fm_ffjelim_equiv; [assumption | assumption | now rewrite Hp1].
      * now rewrite lenN_snoc.
      * split; [assumption|]. destruct (N.eqb_spec (lenN pc + 1) 0); [lia | reflexivity].
      * rewrite <- Hp1. apply is_rref_ffjelim; [assumption | assumption | assumption | now rewrite Hp1].
Qed.

(* pivoted_fraction_free_gauss_jordan_elimination on an r x c matrix of rationals: total,
   the result is a good r x c matrix, row equivalent to A, and it is d times a reduced row
   echelon form for a rational d <> 0 (every pivot of B' is d; with no pivot B' is zero). *)
Theorem pffgj_spec A B r c :
  good A r c -> drow B = r -> dcol B = c ->
  exists B' pl, pivoted_fraction_free_gauss_jordan_elimination A B [] = Ok (B', pl) /\
    good B' r c /\ row_equiv r c (fm_of A) (fm_of B') /\
    exists pc d, d <> 0%Qc /\ is_rref r c (fun a b => (fm_of B' a b / d)%Qc) pc.
Proof.
  intros HG Hr Hc. rewrite pffgj_unfold. pose proof HG as (_ & _ & HrA & HcA). rewrite HrA, HcA.
  destruct (for_range_inv (ffj_inv r c (fm_of A)) 0 c (ffj_body r c) (dm A, [], 0, x0))
    as ([[[m pl] index] dx] & E & M & pc & d & HR & HE & _ & Hdc & Hrr).
  - lia.
  - exists (fm_of A), [], 1%Qc. split; [now apply good_repr|]. split; [|split; [|split]].
    + apply re_refl. intros a b _ _. reflexivity.
    + reflexivity.
    + split; [exact Q_apart_0_1 | reflexivity].
    + apply is_rref_nil.
  - intros i st [_ Hi] Hinv. now apply ffj_step.
  - rewrite E. cbn [bind].
    destruct (repr_setm m r c M B _ HR Hr Hc HE) as (HG' & HE' & HF).
    exists (setm B m), pl. split; [reflexivity|]. split; [assumption|]. split; [assumption|].
    exists pc, d. split; [destruct Hdc; assumption|].
    apply is_rref_ext with (M := fm_div d M); [|assumption].
    intros a b Ha Hb. unfold fm_div. now rewrite HF.
Qed.

(* the pivots of the result all hold the value d, the other entries of a pivot column and
   the entries left of a pivot are zero, the rows without pivot are zero *)
Corollary scaled_rref_entries r c (M : fm) pc d :
  d <> 0%Qc -> is_rref r c (fun a b => (M a b / d)%Qc) pc ->
  (forall k, k < lenN pc ->
     M k (nthN pc k) = d /\ (forall j, j < nthN pc k -> M k j = 0%Qc) /\
     (forall a, a < r -> a <> k -> M a (nthN pc k) = 0%Qc)) /\
  (forall a j, lenN pc <= a -> a < r -> j < c -> M a j = 0%Qc).
Proof.
  intros Hd (Hinc & Hle & Hpiv & Hz). split.
  - intros k Hk. destruct (Hpiv k Hk) as (P1 & P2 & P3 & P4). split; [|split].
    + rewrite (ffj_qcdiv_mul (M k (nthN pc k)) d Hd). rewrite P2. ring.
    + intros j Hj. rewrite (ffj_qcdiv_mul (M k j) d Hd). rewrite (P3 j Hj). ring.
    + intros a Ha Hak. rewrite (ffj_qcdiv_mul (M a (nthN pc k)) d Hd). rewrite (P4 a Ha Hak). ring.
  - intros a j H1 H2 H3. rewrite (ffj_qcdiv_mul (M a j) d Hd). rewrite (Hz a j H1 H2 H3). ring.
Qed.
