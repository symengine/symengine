(* C24 -- specifications of the elementary operations of the model against the functional
   view [entry M i j]: sums, products, transpose, row operations, pivot search.  All sizes.
   In-place loops are followed through [holds m r c E]: the vector m is the r x c array E;
   [repr m r c M] when the entries are the rationals M a b. *)
From SE Require Import C24.DenseModel C24.DenseBase C24.DenseSpec.
From Coq Require Import Lia ZifyBool ZifyNat ZifyN.
Local Open Scope N_scope.
Local Open Scope res_scope.

(* for i < row, for j < col: the body puts F i j (which does not depend on c) into
   c[idx i j] and leaves the other cells alone *)
Lemma fill2_gen row col (body : N -> N -> list qx -> res (list qx)) (idx : N -> N -> N)
      (F : N -> N -> qx) L c :
  lenN c = L ->
  (forall i j c, i < row -> j < col -> lenN c = L ->
     exists c', body i j c = Ok c' /\ lenN c' = L /\ nthx c' (idx i j) = F i j /\
       forall k, k <> idx i j -> nthx c' k = nthx c k) ->
  (forall i j i' j', i < row -> j < col -> i' < row -> j' < col -> idx i j = idx i' j' -> i = i' /\ j = j') ->
  exists c',
    for_range 0 row (fun i c => for_range 0 col (fun j c => body i j c) c) c = Ok c' /\
    lenN c' = L /\
    (forall i j, i < row -> j < col -> nthx c' (idx i j) = F i j) /\
    (forall k, (forall i j, i < row -> j < col -> idx i j <> k) -> nthx c' k = nthx c k).
Proof.
  intros HL Hbody Hinj.
  pose (P := fun (i : N) (c' : list qx) =>
    lenN c' = L /\
    (forall a b, a < i -> b < col -> nthx c' (idx a b) = F a b) /\
    (forall k, (forall a b, a < i -> b < col -> idx a b <> k) -> nthx c' k = nthx c k)).
  destruct (for_range_inv P 0 row (fun i c => for_range 0 col (fun j c => body i j c) c) c) as (c' & E & HP).
  - lia.
  - split; [|split]; [assumption | intros; lia | reflexivity].
  - intros i s Hi (HLs & Hdone & Hrest).
    pose (Q := fun (j : N) (c' : list qx) =>
      lenN c' = L /\
      (forall a b, (a < i \/ (a = i /\ b < j)) -> b < col -> nthx c' (idx a b) = F a b) /\
      (forall k, (forall a b, (a < i \/ (a = i /\ b < j)) -> b < col -> idx a b <> k) -> nthx c' k = nthx c k)).
    destruct (for_range_inv Q 0 col (fun j c => body i j c) s) as (s' & E' & HQ).
    + lia.
    + split; [|split]; [assumption | |].
      * intros a b [Ha|[_ Hb]] Hb'; [now apply Hdone | lia].
      * intros k Hk. apply Hrest. intros a b Ha Hb. apply Hk; auto.
    + intros j t Hj (HLt & Hd & Hr).
      destruct (Hbody i j t) as (t' & Et & HLt' & Hv & Ho); [lia | lia | assumption |].
      exists t'. split; [exact Et|]. split; [|split].
      * assumption.
      * intros a b Hab Hb.
        destruct (N.eq_dec (idx a b) (idx i j)) as [e|ne].
        -- rewrite e, Hv. apply Hinj in e; try lia. destruct e; now subst.
        -- rewrite Ho by assumption. apply Hd; [|assumption]. destruct Hab as [Ha|[Ha Hb']]; [now left|].
           right. split; [assumption|]. assert (b <> j) by (intros ->; subst; congruence). lia.
      * intros k Hk. rewrite Ho.
        -- apply Hr. intros a b Hab Hb. apply Hk; [|assumption]. destruct Hab as [?|[? ?]]; [now left | right; split; [assumption | lia]].
        -- intros ->. apply (Hk i j); [right; split; [reflexivity | lia] | lia | reflexivity].
    + exists s'. split; [exact E'|]. destruct HQ as (H1 & H2 & H3). split; [|split].
      * assumption.
      * intros a b Ha Hb. apply H2; [|assumption].
        destruct (N.eq_dec a i); [right; split; [assumption | lia] | left; lia].
      * intros k Hk. apply H3. intros a b Hab Hb. apply Hk; [|assumption]. destruct Hab as [?|[? ?]]; lia.
  - exists c'. split; [exact E|]. destruct HP as (H1 & H2 & H3). split; [|split]; assumption.
Qed.

(* ... by one write *)
Lemma fill2 row col (body : N -> N -> list qx -> res (list qx)) (idx : N -> N -> N)
      (F : N -> N -> qx) L c :
  lenN c = L ->
  (forall i j c, i < row -> j < col -> lenN c = L -> body i j c = wr c (idx i j) (F i j)) ->
  (forall i j, i < row -> j < col -> idx i j < L) ->
  (forall i j i' j', i < row -> j < col -> i' < row -> j' < col -> idx i j = idx i' j' -> i = i' /\ j = j') ->
  exists c',
    for_range 0 row (fun i c => for_range 0 col (fun j c => body i j c) c) c = Ok c' /\
    lenN c' = L /\
    (forall i j, i < row -> j < col -> nthx c' (idx i j) = F i j) /\
    (forall k, (forall i j, i < row -> j < col -> idx i j <> k) -> nthx c' k = nthx c k).
Proof.
  intros HL Hbody Hidx Hinj. apply fill2_gen; try assumption.
  intros i j c0 Hi Hj HL0. rewrite Hbody by assumption.
  assert (Hlt : idx i j < lenN c0) by (rewrite HL0; now apply Hidx).
  rewrite wr_ok by assumption. eexists; split; [reflexivity|].
  split; [now rewrite lenN_upd|].
  split; [now apply nthx_upd_same | intros k Hk; now apply nthx_upd_other].
Qed.

(* the usual row-major index *)
Lemma rm_inj col i j i' j' (row : N) :
  i < row -> j < col -> i' < row -> j' < col -> i * col + j = i' * col + j' -> i = i' /\ j = j'.
Proof. intros _ Hj _ Hj' E. now apply idx_inj in E. Qed.

(* a result matrix C filled cell by cell in row-major order with F i j *)
Lemma fill_rowmajor C r c (body : N -> N -> list qx -> res (list qx)) (F : N -> N -> qx) :
  wf C -> drow C = r -> dcol C = c ->
  (forall i j m, i < r -> j < c -> body i j m = wr m (i * c + j) (F i j)) ->
  exists C',
    (do m <- for_range 0 r (fun i m => for_range 0 c (fun j m => body i j m) m) (dm C);
     Ok (setm C m)) = Ok C' /\
    wf C' /\ drow C' = r /\ dcol C' = c /\
    forall i j, i < r -> j < c -> entry C' i j = F i j.
Proof.
  intros WC Hr Hc Hbody.
  destruct (fill2 r c body (fun i j => i * c + j) F (r * c) (dm C)) as (m' & E & HL & Hv & _).
  - unfold wf in WC. now rewrite WC, Hr, Hc.
  - intros i j m Hi Hj _. now apply Hbody.
  - intros. now apply idx_lt.
  - intros i j i' j'. apply rm_inj.
  - rewrite E. cbn [bind]. eexists; split; [reflexivity|]. unfold wf, setm, entry, ent. cbn.
    split; [now rewrite HL, Hr, Hc | split; [exact Hr | split; [exact Hc|]]].
    intros i j Hi Hj. rewrite Hc. now apply Hv.
Qed.

Section Entrywise.
Variables A B C : dmat.
Hypothesis WA : wf A.
Hypothesis WC : wf C.
Hypothesis HrC : drow C = drow A.
Hypothesis HcC : dcol C = dcol A.

Lemma entrywise2_spec (op : qx -> qx -> qx) (f : dmat -> dmat -> dmat -> res dmat) :
  wf B -> drow B = drow A -> dcol B = dcol A ->
  (f A B C =
   do c <- for_range 0 (drow A) (fun i c =>
             for_range 0 (dcol A) (fun j c =>
               do a <- rd (dm A) (i * dcol A + j);
               do b <- rd (dm B) (i * dcol A + j);
               wr c (i * dcol A + j) (op a b)) c) (dm C);
   Ok (setm C c)) ->
  exists C', f A B C = Ok C' /\ wf C' /\ drow C' = drow A /\ dcol C' = dcol A /\
    forall i j, i < drow A -> j < dcol A -> entry C' i j = op (entry A i j) (entry B i j).
Proof using WA WC HrC HcC.
  intros WB HrB HcB ->.
  apply (fill_rowmajor C (drow A) (dcol A) _ (fun i j => op (entry A i j) (entry B i j)) WC HrC HcC).
  intros i j c Hi Hj. unfold wf in WA, WB.
  rewrite rd_ok by (rewrite WA; now apply idx_lt). cbn [bind].
  rewrite rd_ok by (rewrite WB, HrB, HcB; now apply idx_lt). cbn [bind].
  unfold entry, ent. now rewrite HcB.
Qed.

Lemma entrywise1_spec (op : qx -> qx) (f : res dmat) :
  (f =
   do c <- for_range 0 (drow A) (fun i c =>
             for_range 0 (dcol A) (fun j c =>
               do a <- rd (dm A) (i * dcol A + j);
               wr c (i * dcol A + j) (op a)) c) (dm C);
   Ok (setm C c)) ->
  exists C', f = Ok C' /\ wf C' /\ drow C' = drow A /\ dcol C' = dcol A /\
    forall i j, i < drow A -> j < dcol A -> entry C' i j = op (entry A i j).
Proof using WA WC HrC HcC.
  intros ->.
  apply (fill_rowmajor C (drow A) (dcol A) _ (fun i j => op (entry A i j)) WC HrC HcC).
  intros i j c Hi Hj. unfold wf in WA.
  rewrite rd_ok by (rewrite WA; now apply idx_lt). reflexivity.
Qed.
End Entrywise.

Theorem add_dense_dense_spec A B C :
  wf A -> wf B -> wf C -> drow B = drow A -> dcol B = dcol A -> drow C = drow A -> dcol C = dcol A ->
  exists C', add_dense_dense A B C = Ok C' /\ wf C' /\ drow C' = drow A /\ dcol C' = dcol A /\
    forall i j, i < drow A -> j < dcol A -> entry C' i j = xadd (entry A i j) (entry B i j).
Proof. intros. apply (entrywise2_spec A B C) with (op := xadd); auto. Qed.

Theorem elementwise_mul_dense_dense_spec A B C :
  wf A -> wf B -> wf C -> drow B = drow A -> dcol B = dcol A -> drow C = drow A -> dcol C = dcol A ->
  exists C', elementwise_mul_dense_dense A B C = Ok C' /\ wf C' /\ drow C' = drow A /\ dcol C' = dcol A /\
    forall i j, i < drow A -> j < dcol A -> entry C' i j = xmul (entry A i j) (entry B i j).
Proof. intros. apply (entrywise2_spec A B C) with (op := xmul); auto. Qed.

Theorem add_dense_scalar_spec A k C :
  wf A -> wf C -> drow C = drow A -> dcol C = dcol A ->
  exists C', add_dense_scalar A k C = Ok C' /\ wf C' /\ drow C' = drow A /\ dcol C' = dcol A /\
    forall i j, i < drow A -> j < dcol A -> entry C' i j = xadd (entry A i j) k.
Proof. intros. apply (entrywise1_spec A C) with (op := fun a => xadd a k); auto. Qed.

Theorem mul_dense_scalar_spec A k C :
  wf A -> wf C -> drow C = drow A -> dcol C = dcol A ->
  exists C', mul_dense_scalar A k C = Ok C' /\ wf C' /\ drow C' = drow A /\ dcol C' = dcol A /\
    forall i j, i < drow A -> j < dcol A -> entry C' i j = xmul (entry A i j) k.
Proof. intros. apply (entrywise1_spec A C) with (op := fun a => xmul a k); auto. Qed.

Theorem transpose_dense_spec A B :
  wf A -> wf B -> drow B = dcol A -> dcol B = drow A ->
  exists B', transpose_dense A B = Ok B' /\ wf B' /\ drow B' = dcol A /\ dcol B' = drow A /\
    forall i j, i < dcol A -> j < drow A -> entry B' i j = entry A j i.
Proof.
  intros WA WB Hr Hc. unfold transpose_dense.
  destruct (fill2 (drow A) (dcol A)
              (fun i j b => do a <- rd (dm A) (i * dcol A + j); wr b (j * dcol B + i) a)
              (fun i j => j * dcol B + i)
              (fun i j => entry A i j) (drow B * dcol B) (dm B))
    as (c' & E & HL & Hv & _).
  - exact WB.
  - intros i j c Hi Hj _. rewrite rd_ok by (rewrite WA; now apply idx_lt). reflexivity.
  - intros i j Hi Hj. rewrite Hr, Hc. apply idx_lt; assumption.
  - intros i j i' j' Hi Hj Hi' Hj' Eq. rewrite Hc in Eq. apply idx_inj in Eq; [lia | assumption | assumption].
  - rewrite E. cbn [bind]. eexists; split; [reflexivity|]. unfold wf, setm, entry, ent. cbn.
    split; [|split; [|split]]; try assumption.
    intros i j Hi Hj. apply (Hv j i); assumption.
Qed.

(* left fold of xadd over the products A[r][k] * B[k][c], as the inner loop computes it *)
Fixpoint dot_fold (n : nat) (f : N -> qx) : qx :=
  match n with
  | O => x0
  | S k => xadd (dot_fold k f) (f (N.of_nat k))
  end.

Lemma dot_fold_fin n f g :
  (forall k, k < N.of_nat n -> f k = Fin (g k)) -> dot_fold n f = Fin (sum_upto n g).
Proof.
  induction n as [|n IH]; intros H; cbn [dot_fold sum_upto]; [reflexivity|].
  rewrite IH by (intros k Hk; apply H; lia). rewrite H by lia. reflexivity.
Qed.

Lemma mul_cell_spec A B col r c cm :
  wf A -> wf B -> dcol B = col -> drow B = dcol A -> r < drow A -> c < col ->
  lenN cm = drow A * col ->
  exists cm', mul_cell A B col r c cm = Ok cm' /\ lenN cm' = lenN cm /\
    nthx cm' (r * col + c) = dot_fold (N.to_nat (dcol A)) (fun k => xmul (entry A r k) (entry B k c)) /\
    forall k, k <> r * col + c -> nthx cm' k = nthx cm k.
Proof.
  intros WA WB HcB HrB Hr Hc HL. unfold mul_cell.
  assert (Hidx : r * col + c < lenN cm) by (rewrite HL; now apply idx_lt).
  rewrite wr_ok by assumption. cbn [bind].
  set (cm0 := upd cm (N.to_nat (r * col + c)) x0).
  pose (P := fun (k : N) (m : list qx) =>
    lenN m = lenN cm /\
    nthx m (r * col + c) = dot_fold (N.to_nat k) (fun k => xmul (entry A r k) (entry B k c)) /\
    forall t, t <> r * col + c -> nthx m t = nthx cm t).
  destruct (for_range_inv P 0 (dcol A)
     (fun k cm => do acc <- rd cm (r * col + c);
                  do a <- rd (dm A) (r * dcol A + k);
                  do b <- rd (dm B) (k * col + c);
                  wr cm (r * col + c) (xadd acc (xmul a b))) cm0) as (m' & E & HP).
  - lia.
  - unfold P, cm0. rewrite lenN_upd. split; [|split]; [reflexivity| |].
    + now rewrite nthx_upd_same.
    + intros t Ht. now rewrite nthx_upd_other.
  - intros k m Hk (HLm & Hacc & Hoth).
    rewrite rd_ok by (rewrite HLm; assumption). cbn [bind].
    rewrite rd_ok by (rewrite WA; apply idx_lt; lia). cbn [bind].
    rewrite rd_ok by (rewrite WB, HrB, HcB; apply idx_lt; lia). cbn [bind].
    rewrite wr_ok by (rewrite HLm; assumption).
    eexists; split; [reflexivity|]. unfold P. rewrite lenN_upd. split; [|split].
    + assumption.
    + rewrite nthx_upd_same by (rewrite HLm; assumption).
      replace (N.to_nat (k + 1)) with (S (N.to_nat k)) by lia. cbn [dot_fold].
      rewrite N2Nat.id. rewrite Hacc. unfold entry, ent. now rewrite HcB.
    + intros t Ht. rewrite nthx_upd_other by assumption. now apply Hoth.
  - exists m'. split; [exact E|]. destruct HP as (H1 & H2 & H3). split; [|split]; assumption.
Qed.

Theorem mul_dense_dense_spec A B C :
  wf A -> wf B -> wf C -> drow B = dcol A -> drow C = drow A -> dcol C = dcol B ->
  exists C', mul_dense_dense A B C = Ok C' /\ wf C' /\ drow C' = drow A /\ dcol C' = dcol B /\
    forall i j, i < drow A -> j < dcol B ->
      entry C' i j = dot_fold (N.to_nat (dcol A)) (fun k => xmul (entry A i k) (entry B k j)).
Proof.
  intros WA WB WC HrB HrC HcC. unfold mul_dense_dense.
  destruct (fill2_gen (drow A) (dcol B) (fun r cc c => mul_cell A B (dcol B) r cc c)
              (fun i j => i * dcol B + j)
              (fun i j => dot_fold (N.to_nat (dcol A)) (fun k => xmul (entry A i k) (entry B k j)))
              (drow A * dcol B) (dm C)) as (c' & E & HL & Hv & _).
  - unfold wf in WC. now rewrite WC, HrC, HcC.
  - intros i j c Hi Hj HLc.
    destruct (mul_cell_spec A B (dcol B) i j c) as (c1 & E1 & HL1 & Hv1 & Ho1);
      try assumption; try reflexivity.
    exists c1. split; [exact E1|]. split; [now rewrite HL1|]. split; assumption.
  - intros i j i' j'. apply rm_inj.
  - rewrite E. cbn [bind]. eexists; split; [reflexivity|]. unfold wf, setm, entry, ent. cbn.
    split; [|split; [|split]]; try assumption.
    + now rewrite HL, HrC, HcC.
    + intros i j Hi Hj. rewrite HcC. now apply Hv.
Qed.

(* on matrices of rational numbers the product is the sum of products *)
Corollary mul_dense_dense_fin A B C :
  wf A -> wf B -> wf C -> fin_mat A -> fin_mat B ->
  drow B = dcol A -> drow C = drow A -> dcol C = dcol B ->
  exists C', mul_dense_dense A B C = Ok C' /\ wf C' /\ fin_mat C' /\ drow C' = drow A /\ dcol C' = dcol B /\
    fm_eq (drow A) (dcol B) (fm_of C') (fm_mul (dcol A) (fm_of A) (fm_of B)).
Proof.
  intros WA WB WC FA FB HrB HrC HcC.
  destruct (mul_dense_dense_spec A B C) as (C' & E & WC' & Hr' & Hc' & Hv); try assumption.
  assert (Hfin : forall i j, i < drow A -> j < dcol B ->
            entry C' i j = Fin (fm_mul (dcol A) (fm_of A) (fm_of B) i j)).
  { intros i j Hi Hj. rewrite Hv by assumption. unfold fm_mul, sumN. apply dot_fold_fin.
    intros k Hk. unfold fm_of.
    rewrite (fin_entry A i k) by (try assumption; lia).
    rewrite (fin_entry B k j) by (try assumption; lia). reflexivity. }
  destruct (good_of_entries C' _ _ _ WC' Hr' Hc' Hfin) as [(_ & FC' & _) HF].
  exists C'. split; [exact E|]. split; [|split; [|split; [|split]]]; assumption.
Qed.

Definition good_vec (m : list qx) (row col : N) : Prop := lenN m = row * col.

(* the row-major vector m holds the r x c array of entries E *)
Definition holds (m : list qx) (r c : N) (E : N -> N -> qx) : Prop :=
  good_vec m r c /\ forall a b, a < r -> b < c -> ent m c a b = E a b.

Lemma holds_ext m r c E E' :
  holds m r c E -> (forall a b, a < r -> b < c -> E a b = E' a b) -> holds m r c E'.
Proof. intros [HL HV] HE. split; [assumption|]. intros a b Ha Hb. now rewrite HV, HE. Qed.

Lemma holds_rd m r c E :
  holds m r c E -> forall i j, i < r -> j < c -> rd m (i * c + j) = Ok (E i j).
Proof.
  intros [HL HV] i j Hi Hj. rewrite rd_ok by (rewrite HL; now apply idx_lt).
  f_equal. now apply HV.
Qed.

Lemma holds_wr m r c E E' i j v :
  holds m r c E -> i < r -> j < c ->
  (forall a b, a < r -> b < c -> (if (a =? i) && (b =? j) then v else E a b) = E' a b) ->
  exists m', wr m (i * c + j) v = Ok m' /\ holds m' r c E'.
Proof.
  intros [HL HV] Hi Hj HE. rewrite wr_ok by (rewrite HL; now apply idx_lt).
  eexists; split; [reflexivity|]. split; [unfold good_vec; now rewrite lenN_upd|].
  intros a b Ha Hb. rewrite (ent_upd m r c i j a b), <- HE by assumption.
  destruct ((a =? i) && (b =? j)); [reflexivity | now apply HV].
Qed.

(* a loop that holds F t before iteration t *)
Lemma holds_loop r c (F : N -> N -> N -> qx) E E' a b body m :
  a <= b -> holds m r c E -> (forall x y, x < r -> y < c -> E x y = F a x y) ->
  (forall t s, a <= t < b -> holds s r c (F t) ->
     exists s', body t s = Ok s' /\ holds s' r c (F (t + 1))) ->
  (forall x y, x < r -> y < c -> F b x y = E' x y) ->
  exists m', for_range a b body m = Ok m' /\ holds m' r c E'.
Proof.
  intros Hab HR H0 Hstep Hb.
  destruct (for_range_inv (fun t s => holds s r c (F t)) a b body m Hab) as (m' & E1 & HR').
  - exact (holds_ext _ _ _ _ _ HR H0).
  - exact Hstep.
  - exists m'. split; [exact E1 | exact (holds_ext _ _ _ _ _ HR' Hb)].
Qed.

(* case analysis on every boolean test of the goal *)
Ltac ffj_cases :=
  repeat (match goal with
          | |- context [N.eqb ?x ?y] => destruct (N.eqb_spec x y); try lia; subst
          | |- context [N.ltb ?x ?y] => destruct (N.ltb_spec x y); try lia
          | |- context [N.leb ?x ?y] => destruct (N.leb_spec x y); try lia
          end; cbn [andb negb orb]).

(* the effect of the three in-place row loops on a row-major vector with `col` columns,
   as functions on entries *)

Lemma row_exchange_spec m row col i j :
  good_vec m row col -> i < row -> j < row -> i <> j ->
  exists m', row_exchange m col i j = Ok m' /\ good_vec m' row col /\
    forall r k, r < row -> k < col ->
      ent m' col r k = if r =? i then ent m col j k else if r =? j then ent m col i k else ent m col r k.
Proof.
  intros HL Hi Hj Hij. unfold row_exchange.
  pose (F := fun (t r k : N) =>
    if k <? t then (if r =? i then ent m col j k else if r =? j then ent m col i k else ent m col r k)
    else ent m col r k).
  apply (holds_loop row col F (ent m col)); [lia | now split | | |].
  - intros r k _ _. unfold F. ffj_cases; reflexivity.
  - intros t s [_ Ht] Hs. rewrite !(holds_rd s row col _ Hs) by lia. cbn [bind].
    destruct (holds_wr s row col (F t) _ i t (F t j t) Hs Hi Ht (fun _ _ _ _ => eq_refl))
      as (s1 & E1 & H1).
    rewrite E1. cbn [bind]. apply (holds_wr s1 row col _ _ j t _ H1 Hj Ht).
    intros r k _ _. unfold F. clear - Hij. ffj_cases; reflexivity.
  - intros r k _ Hk. unfold F. ffj_cases; reflexivity.
Qed.

Lemma row_mul_scalar_spec m row col i c :
  good_vec m row col -> i < row ->
  exists m', row_mul_scalar m col i c = Ok m' /\ good_vec m' row col /\
    forall r k, r < row -> k < col ->
      ent m' col r k = if r =? i then xmul c (ent m col i k) else ent m col r k.
Proof.
  intros HL Hi. unfold row_mul_scalar.
  pose (F := fun (t r k : N) =>
    if (k <? t) && (r =? i) then xmul c (ent m col i k) else ent m col r k).
  apply (holds_loop row col F (ent m col)); [lia | now split | | |].
  - intros r k _ _. unfold F. ffj_cases; reflexivity.
  - intros t s [_ Ht] Hs. rewrite (holds_rd s row col _ Hs) by lia. cbn [bind].
    apply (holds_wr s row col (F t)); try assumption.
    intros r k _ _. unfold F. ffj_cases; reflexivity.
  - intros r k _ Hk. unfold F. ffj_cases; reflexivity.
Qed.

Lemma row_add_row_spec m row col i j c :
  good_vec m row col -> i < row -> j < row -> i <> j ->
  exists m', row_add_row m col i j c = Ok m' /\ good_vec m' row col /\
    forall r k, r < row -> k < col ->
      ent m' col r k = if r =? i then xadd (ent m col i k) (xmul c (ent m col j k)) else ent m col r k.
Proof.
  intros HL Hi Hj Hij. unfold row_add_row.
  pose (F := fun (t r k : N) =>
    if (k <? t) && (r =? i) then xadd (ent m col i k) (xmul c (ent m col j k)) else ent m col r k).
  apply (holds_loop row col F (ent m col)); [lia | now split | | |].
  - intros r k _ _. unfold F. ffj_cases; reflexivity.
  - intros t s [_ Ht] Hs. rewrite !(holds_rd s row col _ Hs) by lia. cbn [bind].
    apply (holds_wr s row col (F t)); try assumption.
    intros r k _ _. unfold F. ffj_cases; reflexivity.
  - intros r k _ Hk. unfold F. ffj_cases; reflexivity.
Qed.

Lemma pivot_spec m row col r c :
  good_vec m row col -> r <= row -> c < col ->
  exists k, pivot m row col r c = Ok k /\ r <= k <= row /\
    (forall t, r <= t < k -> x_is_zero (ent m col t c) = true) /\
    (k < row -> x_is_zero (ent m col k c) = false).
Proof.
  intros HL Hr Hc. unfold pivot, good_vec in *.
  remember (N.to_nat (row - r)) as n eqn:Hn.
  revert r Hr Hn. induction n as [|n IH]; intros r Hr Hn; cbn [pivot_loop].
  - exists row. split; [reflexivity|]. assert (r = row) by lia. subst. split; [|split]; [lia | intros; lia | lia].
  - rewrite rd_ok by (rewrite HL; apply idx_lt; lia). cbn [bind]. fold (ent m col r c).
    destruct (x_is_zero (ent m col r c)) eqn:Ez.
    + destruct (IH (r + 1)) as (k & E & Hk & Hz & Hnz); [lia | lia |].
      exists k. split; [exact E|]. split; [|split]; [lia | | assumption].
      intros t Ht. destruct (N.eq_dec t r); [now subst | apply Hz; lia].
    + exists r. split; [reflexivity|]. split; [|split]; [lia | intros; lia | now intros].
Qed.

(* the row-major vector m holds the r x c matrix of rationals M:
   [holds m r c (fun a b => Fin (M a b))] *)
Definition repr (m : list qx) (r c : N) (M : fm) : Prop :=
  lenN m = r * c /\ forall a b, a < r -> b < c -> ent m c a b = Fin (M a b).

Lemma repr_ext m r c M M' : repr m r c M -> fm_eq r c M M' -> repr m r c M'.
Proof.
  intros [HL HV] HE. split; [assumption|]. intros a b Ha Hb. rewrite HV by assumption.
  now rewrite HE.
Qed.

Lemma repr_swap m r c M i j :
  repr m r c M -> i < r -> j < r -> i <> j ->
  exists m', row_exchange m c i j = Ok m' /\ repr m' r c (fm_swap i j M).
Proof.
  intros [HL HV] Hi Hj Hij.
  destruct (row_exchange_spec m r c i j HL Hi Hj Hij) as (m' & E & HL' & Hv).
  exists m'. split; [exact E|]. split; [exact HL'|].
  intros a b Ha Hb. rewrite Hv by assumption. unfold fm_swap.
  destruct (N.eqb_spec a i); [now apply HV|]. destruct (N.eqb_spec a j); now apply HV.
Qed.

Lemma repr_scale m r c M i k :
  repr m r c M -> i < r ->
  exists m', row_mul_scalar m c i (Fin k) = Ok m' /\ repr m' r c (fm_scale i k M).
Proof.
  intros [HL HV] Hi.
  destruct (row_mul_scalar_spec m r c i (Fin k) HL Hi) as (m' & E & HL' & Hv).
  exists m'. split; [exact E|]. split; [exact HL'|].
  intros a b Ha Hb. rewrite Hv by assumption. unfold fm_scale.
  destruct (N.eqb_spec a i); [|now apply HV]. rewrite HV by assumption. apply xmul_fin.
Qed.

Lemma repr_addrow m r c M M' i j k :
  repr m r c M -> i < r -> j < r -> i <> j -> fm_eq r c (fm_addrow i j k M) M' ->
  exists m', row_add_row m c i j (Fin k) = Ok m' /\ repr m' r c M'.
Proof.
  intros [HL HV] Hi Hj Hij HE.
  destruct (row_add_row_spec m r c i j (Fin k) HL Hi Hj Hij) as (m' & E & HL' & Hv).
  exists m'. split; [exact E|]. split; [exact HL'|].
  intros a b Ha Hb. rewrite Hv, <- HE by assumption. unfold fm_addrow.
  destruct (N.eqb_spec a i); [|now apply HV].
  rewrite !HV by assumption. rewrite xmul_fin, xadd_fin. reflexivity.
Qed.

(* a represented vector, put into a matrix record of the right shape, is a good matrix *)
Lemma repr_good m r c M B :
  repr m r c M -> drow B = r -> dcol B = c ->
  good (setm B m) r c /\ fm_eq r c M (fm_of (setm B m)).
Proof.
  intros [HL HV] Hr Hc.
  destruct (good_of_entries (setm B m) r c M) as [G E]; try assumption.
  - unfold wf, setm. cbn. now rewrite HL, Hr, Hc.
  - intros a b Ha Hb. unfold entry, setm. cbn [dm dcol]. rewrite Hc. now apply HV.
  - split; [exact G|]. intros a b Ha Hb. symmetry. now apply E.
Qed.

(* the passage from the final state of an elimination loop to its result *)
Lemma repr_setm m r c M B A0 :
  repr m r c M -> drow B = r -> dcol B = c -> row_equiv r c A0 M ->
  good (setm B m) r c /\ row_equiv r c A0 (fm_of (setm B m)) /\ fm_eq r c M (fm_of (setm B m)).
Proof.
  intros HR Hr Hc HE. destruct (repr_good m r c M B HR Hr Hc) as [HG HF].
  split; [exact HG|]. split; [|exact HF]. eapply re_trans; [exact HE | now apply re_refl].
Qed.

Lemma good_repr A r c : good A r c -> repr (dm A) r c (fm_of A).
Proof.
  intros (WA & FA & Hr & Hc). split.
  - unfold wf in WA. now rewrite WA, Hr, Hc.
  - intros a b Ha Hb. unfold fm_of. rewrite <- Hc.
    apply (fin_entry A a b WA FA); lia.
Qed.

Lemma repr_rd m r c M :
  repr m r c M -> forall i j, i < r -> j < c -> rd m (i * c + j) = Ok (Fin (M i j)).
Proof. exact (holds_rd m r c _). Qed.

(* M with v at (i, j) *)
Definition fm_set (i j : N) (v : Qc) (M : fm) : fm :=
  fun a b => if (a =? i) && (b =? j) then v else M a b.

Lemma repr_wr m r c M M' i j v :
  repr m r c M -> i < r -> j < c -> fm_eq r c (fm_set i j v M) M' ->
  exists m', wr m (i * c + j) (Fin v) = Ok m' /\ repr m' r c M'.
Proof.
  intros HR Hi Hj HE. apply (holds_wr m r c _ _ i j (Fin v) HR Hi Hj).
  intros a b Ha Hb. rewrite <- (HE a b Ha Hb). unfold fm_set. now destruct ((a =? i) && (b =? j)).
Qed.

(* a loop that holds F t before iteration t *)
Lemma repr_loop r c (F : N -> fm) M M' a b body m :
  a <= b -> repr m r c M -> fm_eq r c M (F a) ->
  (forall t s, a <= t < b -> repr s r c (F t) ->
     exists s', body t s = Ok s' /\ repr s' r c (F (t + 1))) ->
  fm_eq r c (F b) M' ->
  exists m', for_range a b body m = Ok m' /\ repr m' r c M'.
Proof.
  intros Hab HR H0 Hstep Hb.
  apply (holds_loop r c (fun t x y => Fin (F t x y)) _ _ a b body m Hab HR); [|exact Hstep|];
    intros x y Hx Hy; f_equal; [now apply H0 | now apply Hb].
Qed.

(* a vector is determined by the matrix it represents *)
Lemma repr_unique m m' r c M M' :
  repr m r c M -> repr m' r c M' -> fm_eq r c M M' -> m = m'.
Proof.
  intros [HL HV] [HL' HV'] HE. apply nthx_ext.
  - unfold lenN in *. lia.
  - rewrite HL. apply flat_ind. intros a b Ha Hb.
    change (ent m c a b = ent m' c a b). now rewrite HV, HV', HE.
Qed.
