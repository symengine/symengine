(* C24 -- the unpivoted fraction-free routines, part 4:
   fraction_free_gaussian_elimination_solve.  The first phase carries the pair (A_, b_)
   through the stages of the elimination (exact description on entries, then meaning over
   Q); the second phase is a back substitution written inline on the pair (b_, x). *)
From SE Require Import C24.DenseModel C24.DenseBase C24.DenseSpec C24.DenseOps C24.DenseGJ2 C24.DenseSolve C24.DenseFF C24.DenseFF2 C24.DenseFF3.
From Coq Require Import Lia ZifyBool ZifyNat ZifyN.
Local Open Scope N_scope.
Local Open Scope res_scope.

(* first phase, stage i, row j: the right-hand side first, then the matrix *)
Definition ffs_row (col bcol i j : N) (st : list qx * list qx) : res (list qx * list qx) :=
  let (am, bm) := st in
  do bm <- for_range 0 bcol (fun k bm =>
             rhs_cell am col (i * col - col + i - 1) bcol i j k bm) bm;
  do am <- ff_krow col i j am;
  do am <- wr am (j * col + i) x0;
  Ok (am, bm).

(* second phase, column k, row i *)
Definition ffs_back (am : list qx) (col bcol k i : N) (st : list qx * list qx)
  : res (list qx * list qx) :=
  let (bm, xm) := st in
  do bm <- for_range (i + 1) col (fun j bm =>
             do bi <- rd bm (i * bcol + k);
             do a <- rd am (i * col + j);
             do xj <- rd xm (j * bcol + k);
             wr bm (i * bcol + k) (xsub bi (xmul a xj))) bm;
  do bi <- rd bm (i * bcol + k);
  do a <- rd am (i * col + i);
  do xm <- wr xm (i * bcol + k) (xdiv bi a);
  Ok (bm, xm).

Lemma ffges_unfold A b x :
  fraction_free_gaussian_elimination_solve A b x =
  do st <- for_range 0 (dcol A - 1) (fun i st =>
             for_range (i + 1) (dcol A) (fun j st => ffs_row (dcol A) (dcol b) i j st) st)
             (dm A, dm b);
  let (am, bm) := st in
  do xm <- for_range 0 (dcol A * dcol b) (fun i xm => wr xm i x0) (dm x);
  do st <- for_range 0 (dcol b) (fun k st =>
             for_down (N.to_nat (dcol A)) (fun i st => ffs_back am (dcol A) (dcol b) k i st) st)
             (bm, xm);
  Ok (setm x (snd st)).
Proof. reflexivity. Qed.

(* row j of the right-hand side, all the columns *)
Lemma rhs_row_spec am n L bm s Y i j :
  holds am n n L -> holds bm n s Y -> i < j -> j < n ->
  exists bm',
    for_range 0 s (fun k bm => rhs_cell am n (i * n - n + i - 1) s i j k bm) bm = Ok bm' /\
    holds bm' n s (fun a c => if a =? j
                              then xcell i (L i i) (L j i) (L (i - 1) (i - 1)) (Y j c) (Y i c)
                              else Y a c).
Proof.
  intros HA HY Hij Hj.
  apply (holds_loop n s
           (fun t a c => if (a =? j) && (c <? t)
                         then xcell i (L i i) (L j i) (L (i - 1) (i - 1)) (Y j c) (Y i c)
                         else Y a c) Y _ 0 s _ bm ltac:(lia) HY).
  - intros a c Ha Hc. ffj_cases; reflexivity.
  - intros t m [_ Ht] Hm.
    destruct (rhs_cell_spec am n L (i * n - n + i - 1) m s _ i j t HA Hm ltac:(lia) Hj Ht)
      as (m1 & E1 & H1).
    { intros Hpos. nia. }
    exists m1. split; [exact E1|].
    apply (holds_ext _ _ _ _ _ H1). intros a c Ha Hc. cbv beta. ffj_cases; reflexivity.
  - intros a c Ha Hc. ffj_cases; reflexivity.
Qed.

(* stage i on the pair *)
Definition xges_step (i : N) (p : xmat * xmat) : xmat * xmat :=
  (xge_step i (fst p), xfs_step i (fst p) (snd p)).

Lemma ffs_rows_spec am bm n s X Y i :
  holds am n n X -> holds bm n s Y -> i < n ->
  exists am' bm',
    for_range (i + 1) n (fun j st => ffs_row n s i j st) (am, bm) = Ok (am', bm') /\
    holds am' n n (xge_step i X) /\ holds bm' n s (xfs_step i X Y).
Proof.
  intros HX HY Hi.
  pose (P := fun (t : N) (st : list qx * list qx) =>
    holds (fst st) n n
      (fun a b => if (i <? a) && (a <? t)
                  then (if i <? b then xcell i (X i i) (X a i) (X (i - 1) (i - 1)) (X a b) (X i b)
                        else if b =? i then x0 else X a b)
                  else X a b) /\
    holds (snd st) n s
      (fun a c => if (i <? a) && (a <? t)
                  then xcell i (X i i) (X a i) (X (i - 1) (i - 1)) (Y a c) (Y i c)
                  else Y a c)).
  destruct (for_range_inv P (i + 1) n (fun j st => ffs_row n s i j st) (am, bm))
    as ([am' bm'] & E & HPa & HPb).
  - lia.
  - split; cbn [fst snd].
    + apply (holds_ext _ _ _ _ _ HX). intros a b Ha Hb. ffj_cases; reflexivity.
    + apply (holds_ext _ _ _ _ _ HY). intros a b Ha Hb. ffj_cases; reflexivity.
  - intros t [am1 bm1] [Ht1 Ht2] [Ha1 Hb1]. cbn [fst snd] in Ha1, Hb1. unfold ffs_row.
    destruct (rhs_row_spec am1 n _ bm1 s _ i t Ha1 Hb1 ltac:(lia) Ht2) as (bm2 & Eb & Hb2).
    rewrite Eb. cbn [bind].
    destruct (ff_krow_spec am1 n n _ i t Ha1 ltac:(lia) Ht2 Hi) as (am2 & Ea & Ha2).
    rewrite Ea. cbn [bind].
    destruct (holds_set am2 n n _ t i x0 Ha2 Ht2 Hi) as (am3 & Ew & Ha3).
    rewrite Ew. cbn [bind].
    exists (am3, bm2). split; [reflexivity|]. split; cbn [fst snd].
    + apply (holds_ext _ _ _ _ _ Ha3). intros a b Ha Hb. unfold xrow_step. ffj_cases; reflexivity.
    + apply (holds_ext _ _ _ _ _ Hb2). intros a b Ha Hb. cbv beta. ffj_cases; reflexivity.
  - cbn [fst snd] in HPa, HPb. exists am', bm'. split; [exact E|]. split.
    + apply (holds_ext _ _ _ _ _ HPa). intros a b Ha Hb. unfold xge_step. ffj_cases; reflexivity.
    + apply (holds_ext _ _ _ _ _ HPb). intros a b Ha Hb. unfold xfs_step. ffj_cases; reflexivity.
Qed.

(* the two components of the iteration on pairs *)
Lemma xges_iter XA Yb i :
  iterU i xges_step (XA, Yb) =
  (iterU i xge_step XA, iterU i (fun t Y => xfs_step t (iterU t xge_step XA) Y) Yb).
Proof.
  induction i as [|i IH] using N.peano_ind.
  - reflexivity.
  - rewrite <- N.add_1_r. rewrite !iterU_succ, IH. reflexivity.
Qed.

Lemma ffs_phase1 A b n s :
  lenN (dm A) = n * n -> lenN (dm b) = n * s -> 0 < n ->
  exists am bm,
    for_range 0 (n - 1) (fun i st =>
      for_range (i + 1) n (fun j st => ffs_row n s i j st) st) (dm A, dm b) = Ok (am, bm) /\
    holds am n n (iterU (n - 1) xge_step (ent (dm A) n)) /\
    holds bm n s (iterU (n - 1) (fun t Y => xfs_step t (iterU t xge_step (ent (dm A) n)) Y)
                        (ent (dm b) s)).
Proof.
  intros HLA HLb Hn.
  destruct (for_range_iter
              (fun (st : list qx * list qx) (p : xmat * xmat) =>
                 holds (fst st) n n (fst p) /\ holds (snd st) n s (snd p)) (n - 1)
              (fun i st => for_range (i + 1) n (fun j st => ffs_row n s i j st) st)
              xges_step (dm A, dm b) (ent (dm A) n, ent (dm b) s)) as ([am bm] & E & Ha & Hb).
  - split; cbn [fst snd]; now apply holds_self.
  - intros i [am bm] [X Y] Hi [Ha Hb]. cbn [fst snd] in Ha, Hb.
    destruct (ffs_rows_spec am bm n s X Y i Ha Hb ltac:(lia)) as (am' & bm' & E & Ha' & Hb').
    exists (am', bm'). split; [exact E|]. split; assumption.
  - rewrite xges_iter in Ha, Hb. cbn [fst snd] in Ha, Hb.
    exists am, bm. split; [exact E|]. split; assumption.
Qed.

(* the right-hand side is a matrix of numbers when the diagonal of the eliminated matrix has
   no zero *)
Lemma xgs_lift n s XA Aq Yb bq :
  (forall a b, a < n -> b < n -> XA a b = Fin (Aq a b)) ->
  (forall j, j < n -> x_is_zero (iterU (n - 1) xge_step XA j j) = false) ->
  (forall a c, a < n -> c < s -> Yb a c = Fin (bq a c)) ->
  (forall i, i <= n - 1 -> forall a b, a < n -> b < n ->
     iterU i xge_step XA a b = Fin (iterU i gestep Aq a b)) /\
  (forall j, j < n -> iterU (n - 1) gestep Aq j j <> 0%Qc) /\
  (forall i, i <= n - 1 -> forall a c, a < n -> c < s ->
     iterU i (fun t Y => xfs_step t (iterU t xge_step XA) Y) Yb a c =
     Fin (iterU i (fun t Y => fsstep t (iterU t gestep Aq) Y) bq a c)).
Proof.
  intros HXA HG HYb.
  assert (Hlift : forall i, i <= n - 1 -> forall a b, a < n -> b < n ->
            iterU i xge_step XA a b = Fin (iterU i gestep Aq a b)).
  { apply (xge_lift n n XA Aq HXA). intros i H1 _. apply HG. lia. }
  assert (HZ : forall j, j < n -> iterU (n - 1) gestep Aq j j <> 0%Qc).
  { intros j Hj. specialize (HG j Hj). rewrite Hlift in HG by lia.
    cbn [x_is_zero] in HG. now apply qc_is_zero_false in HG. }
  split; [exact Hlift|]. split; [exact HZ|].
  intros i. induction i as [|i IH] using N.peano_ind; intros Hle a c Ha Hc.
  - rewrite !iterU_0. now apply HYb.
  - rewrite <- N.add_1_r in *. rewrite !iterU_succ. specialize (IH ltac:(lia)).
    unfold xfs_step, fsstep. destruct (N.ltb_spec i a) as [Hia|Hia]; [|now apply IH].
    rewrite !Hlift by lia. rewrite !IH by lia. apply xcell_fin. unfold qden.
    destruct (N.ltb_spec 0 i) as [Hpos|_]; [|apply Q_apart_0_1].
    rewrite <- (gestep_frozen (i - 1) (i - 1) i ltac:(lia) (n - 1)) by lia. apply HZ. lia.
Qed.

(* with zeros below the diagonal in the first i columns, clearing column i is the row
   operation *)
Lemma gestep_ffstep r i Z :
  (forall j k, k < j -> k < i -> j < r -> Z j k = 0%Qc) -> i < r ->
  forall a b, a < r -> ffstep i Z a b = gestep i Z a b.
Proof.
  intros HZ Hi a b Ha. unfold ffstep, fsstep, gestep.
  destruct (N.ltb_spec i a) as [Hia|Hia]; [|reflexivity].
  destruct (N.ltb_spec i b) as [Hib|Hib]; [reflexivity|].
  destruct (N.eqb_spec b i) as [->|ne].
  - unfold qcell, Qcdiv. ring.
  - rewrite (HZ a b), (HZ i b) by lia. unfold qcell, Qcdiv. ring.
Qed.

(* a solution of the system reached after i stages is a solution of the system given *)
Lemma ge_sol n s Aq bq :
  (forall j, j < n -> iterU (n - 1) gestep Aq j j <> 0%Qc) ->
  forall i, i <= n - 1 -> forall z,
    fm_eq n s (fm_mul n (iterU i gestep Aq) z)
              (iterU i (fun t Y => fsstep t (iterU t gestep Aq) Y) bq) ->
    fm_eq n s (fm_mul n Aq z) bq.
Proof.
  intros HZ.
  assert (HP : forall i, i + 1 < n -> i + 1 < n -> iterU (n - 1) gestep Aq i i <> 0%Qc).
  { intros i H _. apply HZ. lia. }
  apply (stages_sol n s (fun t => iterU t gestep Aq)
           (fun t => iterU t (fun t Y => fsstep t (iterU t gestep Aq) Y) bq) (n - 1)).
  - intros t Ht. split; [lia|]. split.
    + rewrite <- (gestep_frozen t t t ltac:(lia) (n - 1)) by lia. apply HZ. lia.
    + unfold qden. destruct (N.ltb_spec 0 t) as [Hpos|_]; [|apply Q_apart_0_1].
      rewrite <- (gestep_frozen (t - 1) (t - 1) t ltac:(lia) (n - 1)) by lia. apply HZ. lia.
  - intros t Ht a b Ha _. rewrite iterU_succ.
    destruct (gestep_inv n n Aq HP t ltac:(lia)) as [_ Hzero].
    apply (gestep_ffstep n t _ Hzero); lia.
  - intros t Ht a c _ _. now rewrite iterU_succ.
Qed.

(* the j-loop: b_ik -= A_ij x_jk for i < j < n *)
Lemma gs_inner am n s i k bm xm Af Bf Xf :
  repr am n n Af -> repr bm n s Bf -> repr xm n s Xf -> i < n -> k < s ->
  exists bm',
    for_range (i + 1) n (fun j bm =>
      do bi <- rd bm (i * s + k);
      do a <- rd am (i * n + j);
      do xj <- rd xm (j * s + k);
      wr bm (i * s + k) (xsub bi (xmul a xj))) bm = Ok bm' /\
    repr bm' n s (fm_set i k (Bf i k - sumR (i + 1) n (fun j => Af i j * Xf j k))%Qc Bf).
Proof.
  intros HA HB HX Hi Hk.
  apply (repr_loop n s
           (fun t => fm_set i k (Bf i k - sumR (i + 1) t (fun j => Af i j * Xf j k))%Qc Bf)
           Bf _ (i + 1) n _ bm ltac:(lia) HB).
  - intros a b _ _. unfold fm_set. rewrite sumR_nil. ffj_cases; try reflexivity. ring.
  - intros j t [Hj1 Hj2] Ht.
    rewrite (repr_rd t n s _ Ht i k) by lia. cbn [bind].
    rewrite (repr_rd am n n _ HA i j) by lia. cbn [bind].
    rewrite (repr_rd xm n s _ HX j k) by lia. cbn [bind].
    rewrite xmul_fin, xsub_fin. apply (repr_wr t n s _ _ i k _ Ht Hi Hk).
    intros a b _ _. unfold fm_set. rewrite sumR_succ by lia. ffj_cases; try reflexivity. ring.
  - intros a b _ _. reflexivity.
Qed.

(* one column: rows n-1 down to 0 *)
Lemma gs_col am n s k bm xm Af Bf Xf :
  repr am n n Af -> nonzero_diag n Af -> repr bm n s Bf -> repr xm n s Xf -> k < s ->
  exists bm' xm' Bf' Xf',
    for_down (N.to_nat n) (fun i st => ffs_back am n s k i st) (bm, xm) = Ok (bm', xm') /\
    repr bm' n s Bf' /\ repr xm' n s Xf' /\
    (forall r c, c <> k -> Bf' r c = Bf r c) /\ (forall r c, c <> k -> Xf' r c = Xf r c) /\
    (forall r, r < n -> bs_row n Af Xf' r k (Bf r k)).
Proof.
  intros HA HD HB HX Hk.
  pose (Q := fun (t : N) (st : list qx * list qx) => exists B X,
    repr (fst st) n s B /\ repr (snd st) n s X /\
    (forall r c, c <> k -> B r c = Bf r c) /\ (forall r c, c <> k -> X r c = Xf r c) /\
    (forall r, r < t -> B r k = Bf r k) /\
    (forall r, t <= r < n -> bs_row n Af X r k (Bf r k))).
  destruct (for_down_inv Q (N.to_nat n) (fun i st => ffs_back am n s k i st) (bm, xm))
    as ([bm' xm'] & E & B & X & HB' & HX' & Hbo & Hxo & _ & Hdone).
  - rewrite N2Nat.id. exists Bf, Xf. cbn [fst snd].
    split; [assumption|]. split; [assumption|]. split; [reflexivity|]. split; [reflexivity|].
    split; [reflexivity|]. intros r Hr. lia.
  - intros i [b1 x1'] Hi (B & X & HB1 & HX1 & Hbo & Hxo & Hlow & Hdone).
    rewrite N2Nat.id in Hi. cbn [fst snd] in *. unfold ffs_back.
    destruct (gs_inner am n s i k b1 x1' Af B X HA HB1 HX1 Hi Hk) as (b2 & E2 & HB2).
    rewrite E2. cbn [bind].
    rewrite (repr_rd b2 n s _ HB2 i k Hi Hk). cbn [bind].
    rewrite (repr_rd am n n _ HA i i Hi Hi). cbn [bind].
    rewrite xdiv_fin by (now apply HD).
    match goal with |- context [wr x1' _ (Fin ?v)] =>
      destruct (repr_wr x1' n s X _ i k v HX1 Hi Hk (fun a b _ _ => eq_refl)) as (x3 & E3 & HX3) end.
    rewrite E3. cbn [bind]. eexists; split; [reflexivity|].
    eexists; eexists. cbn [fst snd]. split; [exact HB2|]. split; [exact HX3|].
    unfold fm_set. rewrite !N.eqb_refl. cbn [andb]. split; [|split; [|split; [|]]].
    + intros r c Hne. destruct (N.eqb_spec c k); [lia|]. rewrite andb_false_r. now apply Hbo.
    + intros r c Hne. destruct (N.eqb_spec c k); [lia|]. rewrite andb_false_r. now apply Hxo.
    + intros r Hr. destruct (N.eqb_spec r i); [lia|]. apply Hlow. lia.
    + intros r Hr. destruct (N.eq_dec r i) as [->|Hne].
      * unfold bs_row. rewrite !N.eqb_refl. cbn [andb]. set (v := (_ / Af i i)%Qc).
        rewrite (sumR_ext _ _ _ (fun j => (Af i j * X j k)%Qc))
          by (intros j Hj; destruct (N.eqb_spec j i); [lia | reflexivity]).
        unfold v. rewrite (Hlow i) by lia. field. now apply HD.
      * apply bs_row_ext with (X := X); [lia | | apply Hdone; lia].
        intros j Hj. destruct (N.eqb_spec j i); [lia | reflexivity].
  - cbn [fst snd] in *. exists bm', xm', B, X. split; [exact E|].
    split; [assumption|]. split; [assumption|]. split; [assumption|]. split; [assumption|].
    intros r Hr. apply Hdone. lia.
Qed.

(* all the columns *)
Lemma gs_all am n s bm xm Af Bf Xf :
  repr am n n Af -> nonzero_diag n Af -> repr bm n s Bf -> repr xm n s Xf ->
  exists st' Xf',
    for_range 0 s (fun k st =>
      for_down (N.to_nat n) (fun i st => ffs_back am n s k i st) st) (bm, xm) = Ok st' /\
    repr (snd st') n s Xf' /\
    forall r c, r < n -> c < s -> bs_row n Af Xf' r c (Bf r c).
Proof.
  intros HA HD HB HX.
  pose (P := fun (k : N) (st : list qx * list qx) => exists B X,
    repr (fst st) n s B /\ repr (snd st) n s X /\
    (forall r c, r < n -> c < k -> bs_row n Af X r c (Bf r c)) /\
    (forall r c, k <= c -> B r c = Bf r c)).
  destruct (for_range_inv P 0 s (fun k st =>
      for_down (N.to_nat n) (fun i st => ffs_back am n s k i st) st) (bm, xm))
    as (st' & E & B & X & _ & HX' & Hdone & _).
  - lia.
  - exists Bf, Xf. cbn [fst snd]. split; [assumption|]. split; [assumption|].
    split; [intros; lia | reflexivity].
  - intros k [b1 x1'] [_ Hk] (B & X & HB1 & HX1 & Hdone & Hrest). cbn [fst snd] in *.
    destruct (gs_col am n s k b1 x1' Af B X HA HD HB1 HX1 Hk)
      as (b2 & x2 & B2 & X2 & E2 & HB2 & HX2 & Hbo & Hxo & Hrows).
    exists (b2, x2). split; [exact E2|]. exists B2, X2. cbn [fst snd].
    split; [assumption|]. split; [assumption|]. split.
    + intros r c Hr Hc. destruct (N.eq_dec c k) as [->|Hne].
      * rewrite <- (Hrest r k) by lia. now apply Hrows.
      * apply bs_row_ext with (X := X); [assumption | | apply Hdone; lia].
        intros j Hj. symmetry. now apply Hxo.
    + intros r c Hc. rewrite Hbo by lia. apply Hrest. lia.
  - exists st', X. split; [exact E|]. split; assumption.
Qed.

(* on an n x n matrix A and an n x s right-hand side b of numbers (n > 0), with a
   well-formed n x s matrix x for the result: when the diagonal of the matrix computed by
   fraction_free_gaussian_elimination (the same stages on A) has no zero,
   fraction_free_gaussian_elimination_solve succeeds and returns a matrix of numbers x'
   with A x' = b *)
Theorem ffge_solve_spec A b x n s G :
  good A n n -> good b n s -> 0 < n -> wf x -> drow x = n -> dcol x = s ->
  fraction_free_gaussian_elimination A (mzero n n) = Ok G ->
  (forall j, j < n -> x_is_zero (entry G j j) = false) ->
  exists x', fraction_free_gaussian_elimination_solve A b x = Ok x' /\ good x' n s /\
    fm_eq n s (fm_mul n (fm_of A) (fm_of x')) (fm_of b).
Proof.
  intros GA Gb Hn Wx Hxr Hxc EG HG.
  pose proof GA as (_ & _ & HrA & HcA). pose proof Gb as (_ & _ & Hrb & Hcb).
  pose proof (good_repr A n n GA) as [HLA HVA].
  pose proof (good_repr b n s Gb) as [HLb HVb].
  (* the guard, on the iterates *)
  destruct (ffge_run A (mzero n n) n n HLA HrA HcA Hn) as (gm & EG' & Hgm).
  rewrite EG in EG'. inversion EG'; subst G. clear EG'.
  assert (HG' : forall j, j < n -> x_is_zero (iterU (n - 1) xge_step (ent (dm A) n) j j) = false).
  { intros j Hj. rewrite <- (HG j Hj). unfold entry, setm, mzero. cbn [dm dcol].
    destruct Hgm as [_ Hv]. symmetry. apply f_equal. apply Hv; lia. }
  destruct (xgs_lift n s (ent (dm A) n) (fm_of A) (ent (dm b) s) (fm_of b) HVA HG' HVb)
    as (HliftA & HZ & HliftB).
  (* first phase *)
  rewrite ffges_unfold, HcA, Hcb.
  destruct (ffs_phase1 A b n s HLA HLb Hn) as (am & bm & E1 & Ham & Hbm).
  rewrite E1. cbn [bind]. cbv beta iota.
  set (U := iterU (n - 1) gestep (fm_of A)) in *.
  set (Yq := iterU (n - 1) (fun t Y => fsstep t (iterU t gestep (fm_of A)) Y) (fm_of b)) in *.
  assert (RA : repr am n n U) by exact (holds_ext _ _ _ _ _ Ham (HliftA (n - 1) ltac:(lia))).
  assert (RB : repr bm n s Yq) by exact (holds_ext _ _ _ _ _ Hbm (HliftB (n - 1) ltac:(lia))).
  (* the result vector is cleared *)
  assert (HLx : lenN (dm x) = n * s) by (unfold wf in Wx; now rewrite Wx, Hxr, Hxc).
  destruct (zero_fill n s (dm x) HLx) as (xm0 & E0 & H0).
  rewrite E0. cbn [bind].
  (* second phase *)
  destruct (gs_all am n s bm xm0 U Yq (fun _ _ => qc0) RA HZ RB H0) as (st' & Xf & E2 & RX & Hrows).
  rewrite E2. cbn [bind].
  eexists; split; [reflexivity|].
  destruct (repr_good (snd st') n s Xf x RX Hxr Hxc) as (Gx & HXf). split; [exact Gx|].
  assert (HP : forall i, i + 1 < n -> i + 1 < n -> U i i <> 0%Qc).
  { intros i H _. apply HZ. lia. }
  destruct (gestep_inv n n (fm_of A) HP (n - 1) ltac:(lia)) as [_ Hzero]. fold U in Hzero.
  apply (ge_sol n s (fm_of A) (fm_of b) HZ (n - 1) ltac:(lia)).
  fold U. fold Yq. apply bs_rows_mul.
  - intros a c Ha Hca. apply Hzero; lia.
  - intros r c Hr Hc. apply bs_row_ext with (X := Xf); [assumption | | now apply Hrows].
    intros j Hj. apply HXf; lia.
Qed.

(* the statement in the partial-correctness form *)
Corollary ffge_solve_guarded A b x x' n s G :
  fraction_free_gaussian_elimination_solve A b x = Ok x' ->
  good A n n -> good b n s -> 0 < n -> wf x -> drow x = n -> dcol x = s ->
  fraction_free_gaussian_elimination A (mzero n n) = Ok G ->
  (forall j, j < n -> x_is_zero (entry G j j) = false) ->
  good x' n s /\ fm_eq n s (fm_mul n (fm_of A) (fm_of x')) (fm_of b).
Proof.
  intros E GA Gb Hn Wx Hxr Hxc EG HG.
  destruct (ffge_solve_spec A b x n s G GA Gb Hn Wx Hxr Hxc EG HG) as (x'' & E' & H).
  rewrite E in E'. inversion E'; subst x''. exact H.
Qed.
