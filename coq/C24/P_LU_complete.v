(* C24 obligation: LU returns the unit-lower/upper factorisation whenever one with non-zero pivots exists *)
From SE Require Import C24.DenseModel C24.DenseBase C24.DenseSpec C24.DenseLU4.
Local Open Scope N_scope.
Local Open Scope res_scope.
Theorem C24_LU_complete :
  forall A L0 U0 n (Lf Uf : fm),
  good A n n -> wf L0 -> drow L0 = n -> dcol L0 = n -> drow U0 = n -> dcol U0 = n ->
  unit_diag n Lf -> lower_tri n Lf -> upper_tri n Uf ->
  fm_eq n n (fm_mul n Lf Uf) (fm_of A) -> (forall j, j + 1 < n -> Uf j j <> 0%Qc) ->
  exists L U, LU A L0 U0 = Ok (L, U) /\ good L n n /\ good U n n /\
    fm_eq n n (fm_of L) Lf /\ fm_eq n n (fm_of U) Uf.
Proof. exact LU_complete. Qed.
Print Assumptions C24_LU_complete.
