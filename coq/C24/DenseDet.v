(* C24 -- det_bareis against the cofactor expansion [det] for orders 1, 2, 3 (the closed
   formulas of the code), symbolically for all rational entries. *)
From SE Require Import C24.DenseModel C24.DenseBase C24.DenseSpec.
From Coq Require Import Lia ZifyBool ZifyNat ZifyN.
Local Open Scope N_scope.
Local Open Scope res_scope.

Lemma good_rd A n k :
  good A n n -> k < n * n -> rd (dm A) k = Ok (Fin (qv (nthx (dm A) k))).
Proof.
  intros (W & F & Hr & Hc) Hk. unfold wf in W. rewrite Hr, Hc in W.
  rewrite rd_ok by (rewrite W; assumption). f_equal. apply is_fin_qv. apply F. now rewrite W.
Qed.

Lemma val_flat A n i j : dcol A = n -> val A i j = qv (nthx (dm A) (i * n + j)).
Proof. intros H. unfold val, entry, ent. now rewrite H. Qed.

Theorem det_bareis_1 A : good A 1 1 -> det_bareis A = Ok (Fin (det 1 (fm_of A))).
Proof.
  intros G. pose proof G as (W & F & Hr & Hc). unfold det_bareis. rewrite Hr. cbn [N.eqb Pos.eqb].
  rewrite (good_rd A 1 0 G) by lia. do 2 f_equal.
  unfold det, altsum, minor0, fm_of. rewrite (val_flat A 1) by assumption.
  cbn [N.of_nat N.even]. change (0 * 1 + 0) with 0. ring.
Qed.

(* normalise closed index expressions *)
Ltac norm_idx :=
  repeat match goal with
  | |- context [nthx ?l ?k] =>
      lazymatch k with
      | N0 => fail
      | Npos _ => fail
      | _ => let k' := eval vm_compute in k in change k with k'
      end
  end.

Theorem det_bareis_2 A : good A 2 2 -> det_bareis A = Ok (Fin (det 2 (fm_of A))).
Proof.
  intros G. pose proof G as (W & F & Hr & Hc). unfold det_bareis. rewrite Hr. cbn [N.eqb Pos.eqb].
  rewrite !(good_rd A 2 _ G) by lia. cbn [bind].
  autorewrite with xfin. do 2 f_equal.
  unfold det, altsum, minor0, fm_of. rewrite !(val_flat A 2) by assumption.
  cbn [N.of_nat N.even Pos.of_succ_nat Pos.succ]. norm_idx. ring.
Qed.

Theorem det_bareis_3 A : good A 3 3 -> det_bareis A = Ok (Fin (det 3 (fm_of A))).
Proof.
  intros G. pose proof G as (W & F & Hr & Hc). unfold det_bareis. rewrite Hr. cbn [N.eqb Pos.eqb].
  rewrite !(good_rd A 3 _ G) by lia. cbn [bind].
  autorewrite with xfin. do 2 f_equal.
  unfold det, altsum, minor0, fm_of. rewrite !(val_flat A 3) by assumption.
  cbn [N.of_nat N.even Pos.of_succ_nat Pos.succ]. norm_idx. ring.
Qed.
