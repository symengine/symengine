(* C24 obligation: inverse_LU under the boolean guard guard_lu *)
From SE Require Import C24.DenseModel C24.DenseSpec C24.DenseGuards C24.DenseFinal.
Local Open Scope N_scope.
Local Open Scope res_scope.
Theorem C24_inverse_LU_guarded :
  forall A B n,
  good A n n -> drow B = n -> dcol B = n -> 0 < n ->
  guard_lu A = true ->
  exists B', inverse_LU A B = Ok B' /\ good B' n n /\
    fm_eq n n (fm_mul n (fm_of A) (fm_of B')) fm_id.
Proof. exact inverse_LU_guarded. Qed.
Print Assumptions C24_inverse_LU_guarded.
