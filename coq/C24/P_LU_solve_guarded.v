(* C24 obligation: LU_solve under the boolean guard guard_lu *)
From SE Require Import C24.DenseModel C24.DenseSpec C24.DenseGuards C24.DenseFinal.
Local Open Scope N_scope.
Local Open Scope res_scope.
Theorem C24_LU_solve_guarded :
  forall A b x n s,
  good A n n -> good b n s -> drow x = n -> dcol x = s -> 0 < n ->
  guard_lu A = true ->
  exists x', LU_solve A b x = Ok x' /\ good x' n s /\
    fm_eq n s (fm_mul n (fm_of A) (fm_of x')) (fm_of b).
Proof. exact LU_solve_guarded. Qed.
Print Assumptions C24_LU_solve_guarded.
