(* C24 obligation: LU without guard: either the guard holds and the factorisation is right, or a zero pivot is visible on U's diagonal *)
From SE Require Import C24.DenseModel C24.DenseBase C24.DenseSpec C24.DenseLU3 C24.DenseLU4.
Local Open Scope N_scope.
Local Open Scope res_scope.
Theorem C24_LU_dichotomy :
  forall A L0 U0 n,
  good A n n -> wf L0 -> drow L0 = n -> dcol L0 = n -> drow U0 = n -> dcol U0 = n ->
  exists L U, LU A L0 U0 = Ok (L, U) /\
    wf L /\ wf U /\ drow L = n /\ dcol L = n /\ drow U = n /\ dcol U = n /\
    ((lu_guard n (fm_of A) /\
      fin_mat L /\ fin_mat U /\
      unit_diag n (fm_of L) /\ lower_tri n (fm_of L) /\ upper_tri n (fm_of U) /\
      (forall j, j + 1 < n -> fm_of U j j <> 0%Qc) /\
      fm_eq n n (fm_mul n (fm_of L) (fm_of U)) (fm_of A))
     \/
     (lu_breakdown n (fm_of A) /\ exists b, b + 1 < n /\ entry U b b = x0)).
Proof. exact LU_dichotomy. Qed.
Print Assumptions C24_LU_dichotomy.
