(* C24 obligation: fraction_free_gaussian_elimination_solve under guard_ffge_solve: A x = b *)
From SE Require Import C24.DenseModel C24.DenseBase C24.DenseSpec C24.DenseFF5.
Local Open Scope N_scope.
Local Open Scope res_scope.
Theorem C24_ffge_solve_guarded_b :
  forall A b x n s,
  good A n n -> good b n s -> 0 < n -> wf x -> drow x = n -> dcol x = s ->
  guard_ffge_solve A = true ->
  exists x', fraction_free_gaussian_elimination_solve A b x = Ok x' /\ good x' n s /\
    fm_eq n s (fm_mul n (fm_of A) (fm_of x')) (fm_of b).
Proof. exact ffge_solve_guarded_b. Qed.
Print Assumptions C24_ffge_solve_guarded_b.
