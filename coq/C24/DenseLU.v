(* C24 -- LU decomposition, part 1: the mathematics of the packed Doolittle scheme.
   No reference to the model's loops: a "packed" matrix M : fm holds the multipliers L_ab
   (a > b) below the diagonal and the entries U_ab (a <= b) on and above it.  The
   invariants [lu_inv] / [lu_mid] say which Doolittle equations M already satisfies with
   respect to the (row-permuted) input A; [lu_prod] turns the complete set of equations
   into L * U = A; [lu_unique] shows that the equations determine M. *)
From SE Require Import C24.DenseModel C24.DenseSpec.
From Coq Require Import Lia ZifyBool ZifyNat ZifyN.
Local Open Scope N_scope.

(* the pivot of a column (or row) i of an elimination on n rows: a zero that later rows will
   divide by, or not -- the last pivot is never divided by *)
Lemma pivot_case (i n : N) (q : Qc) : (i + 1 < n /\ q = 0%Qc) \/ (i + 1 < n -> q <> 0%Qc).
Proof.
  destruct (N.ltb_spec (i + 1) n) as [Hlt|Hge]; [|right; lia].
  destruct (Qc_eq_dec q 0%Qc) as [Hz|Hnz]; [left; split; assumption | right; auto].
Qed.

(* rows swapped in the order recorded *)
Definition apply_perm (pl : list (N * N)) (A : fm) : fm :=
  fold_left (fun A p => fm_swap (fst p) (snd p) A) pl A.

Lemma apply_perm_app pl p q A :
  apply_perm (pl ++ [(p, q)]) A = fm_swap p q (apply_perm pl A).
Proof. unfold apply_perm. rewrite fold_left_app. reflexivity. Qed.

(* the two factors read off a packed matrix *)
Definition lu_L (M : fm) : fm :=
  fun a b => if b <? a then M a b else if b =? a then 1%Qc else 0%Qc.
Definition lu_U (M : fm) : fm :=
  fun a b => if b <? a then 0%Qc else M a b.

Lemma lu_L_unit n M : unit_diag n (lu_L M).
Proof.
  intros i _. unfold lu_L. destruct (N.ltb_spec i i); [lia|]. now rewrite N.eqb_refl.
Qed.
Lemma lu_L_lower n M : lower_tri n (lu_L M).
Proof.
  intros i j _ _ H. unfold lu_L. destruct (N.ltb_spec j i); [lia|].
  destruct (N.eqb_spec j i); [lia | reflexivity].
Qed.
Lemma lu_U_upper n M : upper_tri n (lu_U M).
Proof. intros i j _ H. unfold lu_U. destruct (N.ltb_spec j i); [reflexivity | lia]. Qed.
Lemma lu_U_diag M i : lu_U M i i = M i i.
Proof. unfold lu_U. destruct (N.ltb_spec i i); [lia | reflexivity]. Qed.

(* the part of the dot product the algorithm subtracts at position (a, b) *)
Definition dsum (M : fm) (a b : N) : Qc := sumN (N.min a b) (fun k => (M a k * M k b)%Qc).

Lemma dsum_ext M M' a b a' :
  N.min a b = N.min a' b ->
  (forall k, k < N.min a b -> M a k = M' a' k /\ M k b = M' k b) ->
  dsum M a b = dsum M' a' b.
Proof.
  intros Hm H. unfold dsum. rewrite <- Hm. apply sumN_ext. intros k Hk.
  destruct (H k Hk) as [-> ->]. reflexivity.
Qed.

(* columns < j are finished (U on and above the diagonal, multipliers below), columns >= j
   still hold A *)
Definition lu_inv (n j : N) (M A : fm) : Prop :=
  (forall a b, a < n -> b < n -> j <= b -> M a b = A a b) /\
  (forall a b, a < n -> b < j -> a <= b -> (M a b + dsum M a b)%Qc = A a b) /\
  (forall a b, a < n -> b < j -> b < a -> (M a b * M b b + dsum M a b)%Qc = A a b).

(* in addition the dot products have been subtracted in column j, which is not yet scaled *)
Definition lu_mid (n j : N) (M A : fm) : Prop :=
  (forall a b, a < n -> b < n -> j < b -> M a b = A a b) /\
  (forall a b, a < n -> b < j -> a <= b -> (M a b + dsum M a b)%Qc = A a b) /\
  (forall a b, a < n -> b < j -> b < a -> (M a b * M b b + dsum M a b)%Qc = A a b) /\
  (forall a, a < n -> (M a j + dsum M a j)%Qc = A a j).

(* effect of the two dot-product sweeps (rows < j, then rows >= j) on column j *)
Definition dots_rel (n j : N) (M M' : fm) : Prop :=
  (forall a b, a < n -> b < n -> b <> j -> M' a b = M a b) /\
  (forall a, a < n -> (M' a j + dsum M' a j)%Qc = M a j).

(* effect of the scaling of column j below the diagonal *)
Definition scale_rel (n j : N) (M M' : fm) : Prop :=
  forall a b, a < n -> b < n ->
    M' a b = if (j <? a) && (b =? j) then (M a j * / M j j)%Qc else M a b.

Lemma lu_inv_0 n A : lu_inv n 0 A A.
Proof. split; [|split]; intros; [reflexivity | lia | lia]. Qed.

Lemma inv_to_mid n j M M' A :
  j < n -> lu_inv n j M A -> dots_rel n j M M' -> lu_mid n j M' A.
Proof.
  intros Hj (I1 & I2 & I3) (D1 & D2). split; [|split; [|split]].
  - intros a b Ha Hb Hjb. rewrite D1 by (try assumption; lia). apply I1; (assumption || lia).
  - intros a b Ha Hb Hab. rewrite <- (I2 a b) by assumption.
    rewrite D1 by (try assumption; lia). f_equal.
    apply dsum_ext; [reflexivity|]. intros k Hk. split; apply D1; lia.
  - intros a b Ha Hb Hab. rewrite <- (I3 a b) by assumption.
    rewrite !D1 by (try assumption; lia). f_equal.
    apply dsum_ext; [reflexivity|]. intros k Hk. split; apply D1; lia.
  - intros a Ha. rewrite D2 by assumption. apply I1; (assumption || lia).
Qed.

Lemma mid_to_inv n j M M' A :
  j < n -> lu_mid n j M A -> (j + 1 < n -> M j j <> 0%Qc) -> scale_rel n j M M' ->
  lu_inv n (j + 1) M' A.
Proof.
  intros Hj (I1 & I2 & I3 & I4) Hp S.
  assert (Same : forall a b, a < n -> b < n -> (b <> j \/ a <= j) -> M' a b = M a b).
  { intros a b Ha Hb Hc. rewrite S by assumption.
    destruct (N.ltb_spec j a), (N.eqb_spec b j); cbn [andb]; try reflexivity. lia. }
  split; [|split].
  - intros a b Ha Hb Hjb. rewrite Same by (try assumption; lia). apply I1; (assumption || lia).
  - intros a b Ha Hb Hab. destruct (N.eq_dec b j) as [->|Hne].
    + rewrite <- (I4 a) by assumption. rewrite Same by (try assumption; lia). f_equal.
      apply dsum_ext; [reflexivity|]. intros k Hk. split; apply Same; lia.
    + rewrite <- (I2 a b) by (assumption || lia). rewrite Same by (try assumption; lia). f_equal.
      apply dsum_ext; [reflexivity|]. intros k Hk. split; apply Same; lia.
  - intros a b Ha Hb Hab. destruct (N.eq_dec b j) as [->|Hne].
    + rewrite <- (I4 a) by assumption.
      rewrite (Same j j) by (try assumption; lia).
      rewrite (S a j) by assumption.
      destruct (N.ltb_spec j a); [|lia]. rewrite N.eqb_refl. cbn [andb].
      replace (dsum M' a j) with (dsum M a j).
      * field. apply Hp. lia.
      * apply dsum_ext; [reflexivity|]. intros k Hk. split; symmetry; apply Same; lia.
    + rewrite <- (I3 a b) by (assumption || lia). rewrite !Same by (try assumption; lia). f_equal.
      apply dsum_ext; [reflexivity|]. intros k Hk. split; apply Same; lia.
Qed.

(* exchanging two rows p, j >= j of the packed matrix and of A *)
Lemma mid_swap n j p M A :
  j <= p -> p < n -> lu_mid n j M A -> lu_mid n j (fm_swap p j M) (fm_swap p j A).
Proof.
  intros Hjp Hp (I1 & I2 & I3 & I4).
  assert (Low : forall (X : fm) k b, k < j -> fm_swap p j X k b = X k b).
  { intros X k b Hk. unfold fm_swap.
    destruct (N.eqb_spec k p); [lia|]. destruct (N.eqb_spec k j); [lia | reflexivity]. }
  (* the row that ends up in position a *)
  pose (sg := fun a => if a =? p then j else if a =? j then p else a).
  assert (Sw : forall (X : fm) a b, fm_swap p j X a b = X (sg a) b).
  { intros X a b. unfold fm_swap, sg. destruct (N.eqb_spec a p); [reflexivity|].
    destruct (N.eqb_spec a j); reflexivity. }
  assert (Sg : forall a, a < n -> sg a < n /\ (a < j -> sg a = a) /\ (j <= a -> j <= sg a)).
  { intros a Ha. unfold sg. destruct (N.eqb_spec a p); [lia|]. destruct (N.eqb_spec a j); lia. }
  assert (DS : forall a b, a < n -> b <= j -> dsum (fm_swap p j M) a b = dsum M (sg a) b).
  { intros a b Ha Hb. destruct (Sg a Ha) as (S1 & S2 & S3).
    apply dsum_ext; [lia|]. intros k Hk. split; [apply Sw | apply Low; lia]. }
  split; [|split; [|split]].
  - intros a b Ha Hb Hjb. rewrite !Sw. apply I1; [apply Sg; assumption | assumption | assumption].
  - intros a b Ha Hb Hab. destruct (Sg a Ha) as (S1 & S2 & S3).
    rewrite DS by (assumption || lia). rewrite !Sw. apply I2; (assumption || lia).
  - intros a b Ha Hb Hab. destruct (Sg a Ha) as (S1 & S2 & S3).
    rewrite DS by (assumption || lia). rewrite (Low M b b) by assumption. rewrite !Sw.
    apply I3; (assumption || lia).
  - intros a Ha. destruct (Sg a Ha) as (S1 & S2 & S3).
    rewrite DS by (assumption || lia). rewrite !Sw. apply I4; assumption.
Qed.

(* the entries of the product of the two factors of a packed matrix *)
Lemma lu_prod_entry n M a b :
  a < n -> b < n ->
  fm_mul n (lu_L M) (lu_U M) a b =
  if a <=? b then (M a b + dsum M a b)%Qc else (M a b * M b b + dsum M a b)%Qc.
Proof.
  intros Ha Hb. unfold fm_mul.
  destruct (N.leb_spec a b) as [Hab|Hab].
  - (* upper part: sum_{k<a} L_ak U_kb + 1 * U_ab *)
    rewrite (sumN_split n (a + 1)) by lia. rewrite sumN_succ.
    rewrite (sumN_zero (n - (a + 1))).
    + unfold dsum. replace (N.min a b) with a by lia.
      rewrite (sumN_ext a _ (fun k => (M a k * M k b)%Qc)).
      * unfold lu_L at 1, lu_U at 1. destruct (N.ltb_spec a a); [lia|]. rewrite N.eqb_refl.
        destruct (N.ltb_spec b a); [lia|]. ring.
      * intros k Hk. unfold lu_L, lu_U. destruct (N.ltb_spec k a); [|lia].
        destruct (N.ltb_spec b k); [lia | reflexivity].
    + intros k Hk. unfold lu_L. destruct (N.ltb_spec (a + 1 + k) a); [lia|].
      destruct (N.eqb_spec (a + 1 + k) a); [lia | ring].
  - (* lower part: sum_{k<b} L_ak U_kb + L_ab * U_bb *)
    rewrite (sumN_split n (b + 1)) by lia. rewrite sumN_succ.
    rewrite (sumN_zero (n - (b + 1))).
    + unfold dsum. replace (N.min a b) with b by lia.
      rewrite (sumN_ext b _ (fun k => (M a k * M k b)%Qc)).
      * unfold lu_L at 1, lu_U at 1. destruct (N.ltb_spec b a); [|lia].
        destruct (N.ltb_spec b b); [lia|]. ring.
      * intros k Hk. unfold lu_L, lu_U. destruct (N.ltb_spec k a); [|lia].
        destruct (N.ltb_spec b k); [lia | reflexivity].
    + intros k Hk. unfold lu_U. destruct (N.ltb_spec b (b + 1 + k)); [ring | lia].
Qed.

(* all columns finished: the two factors multiply to A *)
Lemma lu_prod n M A :
  lu_inv n n M A -> fm_eq n n (fm_mul n (lu_L M) (lu_U M)) A.
Proof.
  intros (_ & I2 & I3) a b Ha Hb. rewrite lu_prod_entry by assumption.
  destruct (N.leb_spec a b); [apply I2 | apply I3]; assumption.
Qed.

(* ... and conversely: the packed form of a factorization satisfies all the equations *)
Definition lu_pack (L U : fm) : fm := fun a b => if b <? a then L a b else U a b.

Lemma lu_pack_L n L U :
  unit_diag n L -> lower_tri n L -> fm_eq n n (lu_L (lu_pack L U)) L.
Proof.
  intros HU HLo a b Ha Hb. unfold lu_L, lu_pack. destruct (N.ltb_spec b a); [reflexivity|].
  destruct (N.eqb_spec b a) as [->|Hne]; symmetry; [now apply HU | apply HLo; (assumption || lia)].
Qed.

Lemma lu_pack_U n L U : upper_tri n U -> fm_eq n n (lu_U (lu_pack L U)) U.
Proof.
  intros HUp a b Ha Hb. unfold lu_U, lu_pack. destruct (N.ltb_spec b a); [|reflexivity].
  symmetry. now apply HUp.
Qed.

Lemma inv_of_factors n L U A :
  unit_diag n L -> lower_tri n L -> upper_tri n U -> fm_eq n n (fm_mul n L U) A ->
  lu_inv n n (lu_pack L U) A.
Proof.
  intros HU HLo HUp HP.
  assert (E : forall a b, a < n -> b < n ->
            fm_mul n (lu_L (lu_pack L U)) (lu_U (lu_pack L U)) a b = A a b).
  { intros a b Ha Hb. rewrite <- (HP a b Ha Hb).
    apply fm_mul_ext; intros k Hk; [now apply (lu_pack_L n) | now apply (lu_pack_U n)]. }
  split; [|split].
  - intros a b Ha Hb Hnb. lia.
  - intros a b Ha Hb Hab. rewrite <- E by (assumption || lia). rewrite lu_prod_entry by (assumption || lia).
    destruct (N.leb_spec a b); [reflexivity | lia].
  - intros a b Ha Hb Hab. rewrite <- E by (assumption || lia). rewrite lu_prod_entry by (assumption || lia).
    destruct (N.leb_spec a b); [lia | reflexivity].
Qed.

(* the Doolittle equations determine the packed matrix: two packed matrices that satisfy them
   up to the unscaled column j agree on the columns <= j as soon as the pivots before j of
   one of them are non-zero *)
Lemma lu_unique n j M M' A :
  j < n -> lu_mid n j M A -> lu_mid n j M' A -> (forall b, b < j -> M b b <> 0%Qc) ->
  forall a b, a < n -> b <= j -> M a b = M' a b.
Proof.
  intros Hj (_ & I2 & I3 & I4) (_ & J2 & J3 & J4) Hnz.
  assert (HU : forall a b, a < n -> b <= j -> (a <= b \/ b = j) ->
            (M a b + dsum M a b)%Qc = A a b /\ (M' a b + dsum M' a b)%Qc = A a b).
  { intros a b Ha Hb Hc. destruct (N.eq_dec b j) as [->|Hne].
    - split; [now apply I4 | now apply J4].
    - split; [apply I2 | apply J2]; (assumption || lia). }
  assert (G : forall t a b, a < n -> b <= j -> N.min a b < t -> M a b = M' a b).
  { induction t as [|t IH] using N.peano_ind; intros a b Ha Hb Hm; [lia|].
    destruct (N.lt_ge_cases (N.min a b) t) as [Hlt|Hge]; [now apply IH|].
    assert (Ht : N.min a b = t) by lia. clear Hm Hge.
    assert (DS : forall a b, a < n -> b <= j -> N.min a b <= t -> dsum M a b = dsum M' a b).
    { intros a' b' Ha' Hb' Hm'. apply dsum_ext; [reflexivity|]. intros k Hk.
      split; apply IH; lia. }
    assert (UP : forall a b, a < n -> b <= j -> N.min a b <= t -> (a <= b \/ b = j) -> M a b = M' a b).
    { intros a' b' Ha' Hb' Hm' Hc. destruct (HU a' b' Ha' Hb' Hc) as [E1 E2].
      rewrite (DS a' b' Ha' Hb' Hm') in E1.
      transitivity (A a' b' - dsum M' a' b')%Qc; [rewrite <- E1 | rewrite <- E2]; ring. }
    destruct (N.le_gt_cases a b) as [Hab|Hab]; [apply UP; (assumption || lia)|].
    destruct (N.eq_dec b j) as [Hbj|Hbj]; [apply UP; (assumption || lia)|].
    (* a multiplier: cancel the pivot *)
    assert (Hbb : M' b b = M b b) by (symmetry; apply UP; lia).
    pose proof (I3 a b Ha ltac:(lia) Hab) as E1. pose proof (J3 a b Ha ltac:(lia) Hab) as E2.
    rewrite (DS a b Ha Hb ltac:(lia)) in E1. rewrite Hbb in E2.
    assert (Hp : M b b <> 0%Qc) by (apply Hnz; lia).
    transitivity ((A a b - dsum M' a b) / M b b)%Qc; [rewrite <- E1 | rewrite <- E2]; field; assumption. }
  intros a b Ha Hb. apply (G (N.min a b + 1)); (assumption || lia).
Qed.

(* a finished packed matrix, with its column j unscaled again *)
Definition lu_unscale (j : N) (M A : fm) : fm :=
  fun a b => if b <? j then M a b
             else if b =? j then (if j <? a then (M a j * M j j)%Qc else M a j)
             else A a b.

Lemma inv_unscale n j M A : j < n -> lu_inv n n M A -> lu_mid n j (lu_unscale j M A) A.
Proof.
  intros Hj (_ & I2 & I3).
  assert (Same : forall a b, (b < j \/ (b = j /\ a <= j)) -> lu_unscale j M A a b = M a b).
  { intros a b Hc. unfold lu_unscale. destruct (N.ltb_spec b j); [reflexivity|].
    destruct (N.eqb_spec b j); [|lia]. destruct (N.ltb_spec j a); [lia|]. now subst. }
  split; [|split; [|split]].
  - intros a b Ha Hb Hjb. unfold lu_unscale. destruct (N.ltb_spec b j); [lia|].
    destruct (N.eqb_spec b j); [lia | reflexivity].
  - intros a b Ha Hb Hab. rewrite <- (I2 a b) by (assumption || lia). rewrite Same by lia. f_equal.
    apply dsum_ext; [reflexivity|]. intros k Hk. split; apply Same; lia.
  - intros a b Ha Hb Hab. rewrite <- (I3 a b) by (assumption || lia). rewrite !Same by lia. f_equal.
    apply dsum_ext; [reflexivity|]. intros k Hk. split; apply Same; lia.
  - intros a Ha. destruct (N.le_gt_cases a j) as [Haj|Haj].
    + rewrite <- (I2 a j) by (assumption || lia). rewrite Same by lia. f_equal.
      apply dsum_ext; [reflexivity|]. intros k Hk. split; apply Same; lia.
    + rewrite <- (I3 a j) by (assumption || lia).
      replace (lu_unscale j M A a j) with (M a j * M j j)%Qc.
      * f_equal. apply dsum_ext; [reflexivity|]. intros k Hk. split; apply Same; lia.
      * unfold lu_unscale. destruct (N.ltb_spec j j); [lia|]. rewrite N.eqb_refl.
        destruct (N.ltb_spec j a); [reflexivity | lia].
Qed.

(* the pivots of any partially processed packed matrix are those of any finished one *)
Lemma mid_pivot n j M P A :
  j < n -> lu_mid n j M A -> (forall b, b < j -> M b b <> 0%Qc) -> lu_inv n n P A ->
  M j j = P j j.
Proof.
  intros Hj HM Hnz HP.
  rewrite (lu_unique n j M _ A Hj HM (inv_unscale n j P A Hj HP) Hnz j j Hj ltac:(lia)).
  unfold lu_unscale. destruct (N.ltb_spec j j); [lia|]. now rewrite N.eqb_refl.
Qed.

(* two factorizations with unit lower / upper triangular factors are equal as soon as the
   pivots (but possibly the last) of one of them are non-zero *)
Theorem lu_factorization_unique n (L U L' U' A : fm) :
  unit_diag n L -> lower_tri n L -> upper_tri n U -> fm_eq n n (fm_mul n L U) A ->
  unit_diag n L' -> lower_tri n L' -> upper_tri n U' -> fm_eq n n (fm_mul n L' U') A ->
  (forall j, j + 1 < n -> U j j <> 0%Qc) ->
  fm_eq n n L L' /\ fm_eq n n U U'.
Proof.
  intros H1 H2 H3 H4 H1' H2' H3' H4' Hnz.
  pose proof (inv_of_factors n L U A H1 H2 H3 H4) as HI.
  pose proof (inv_of_factors n L' U' A H1' H2' H3' H4') as HI'.
  destruct (N.eq_dec n 0) as [->|Hn0]; [split; intros a b Ha; lia|].
  assert (Hj : n - 1 < n) by lia.
  assert (Mid : forall P, lu_inv n n P A -> lu_mid n (n - 1) P A).
  { intros P (_ & I2 & I3). split; [|split; [|split]].
    - intros; lia.
    - intros a b Ha Hb Hab. apply I2; (assumption || lia).
    - intros a b Ha Hb Hab. apply I3; (assumption || lia).
    - intros a Ha. apply I2; (assumption || lia). }
  assert (E : forall a b, a < n -> b < n -> lu_pack L U a b = lu_pack L' U' a b).
  { intros a b Ha Hb. apply (lu_unique n (n - 1) _ _ A Hj (Mid _ HI) (Mid _ HI')); try assumption; try lia.
    intros c Hc. unfold lu_pack. destruct (N.ltb_spec c c); [lia|]. apply Hnz. lia. }
  split; intros a b Ha Hb.
  - rewrite <- (lu_pack_L n L U H1 H2 a b Ha Hb), <- (lu_pack_L n L' U' H1' H2' a b Ha Hb).
    unfold lu_L. now rewrite E.
  - rewrite <- (lu_pack_U n L U H3 a b Ha Hb), <- (lu_pack_U n L' U' H3' a b Ha Hb).
    unfold lu_U. now rewrite E.
Qed.
