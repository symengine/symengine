(* C24 -- det_bareis for orders n >= 4, part 2: the fraction-free (Bareiss) elimination.
   Total correctness on matrices of rational numbers: the result is the determinant [det]
   (cofactor expansion) of the input.  Invariant of the main loop, on the trailing block
   T_k = B[k.., k..] of the working matrix only (the code neither clears the entries below a
   pivot nor touches rows / columns < k afterwards):
       det A * q^(n-k-1) = (+-) det T_k        q = previous pivot B[k-1,k-1] (1 for k = 0), q <> 0
   a row exchange flips the sign; when a column of the block has no pivot the block has a
   zero first column, its determinant is 0 and so is det A (the code returns 0). *)
From SE Require Import C24.DenseModel C24.DenseBase C24.DenseSpec C24.DenseDet C24.DetTheory C24.DenseGJ2 C24.DenseDet2.
From Coq Require Import Lia ZifyBool ZifyNat ZifyN.
Local Open Scope N_scope.
Local Open Scope res_scope.

(* the previous pivot *)
Definition prevp (k : N) (M : fm) : Qc := if 0 <? k then M (k - 1) (k - 1) else 1%Qc.

(* the matrix after the update loop of step k *)
Definition bareis_new (k : N) (M : fm) : fm :=
  fun i j => if (k <? i) && (k <? j)
             then ((M k k * M i j - M i k * M k j) / prevp k M)%Qc else M i j.

(* ... and while the loop is at (i, j) *)
Definition upd_part (k i j : N) (M : fm) : fm :=
  fun a b => if (a <? i) || ((a =? i) && (b <? j)) then bareis_new k M a b else M a b.

Lemma new_low k M a b : a <= k \/ b <= k -> bareis_new k M a b = M a b.
Proof. intros H. unfold bareis_new. ffj_cases; reflexivity. Qed.

Lemma upd_part_low k i j M a b : a <= k \/ b <= k -> upd_part k i j M a b = M a b.
Proof.
  intros H. unfold upd_part. rewrite new_low by assumption.
  destruct ((a <? i) || ((a =? i) && (b <? j))); reflexivity.
Qed.

Lemma upd_part_cur k i j M : upd_part k i j M i j = M i j.
Proof. unfold upd_part. rewrite !N.ltb_irrefl, N.eqb_refl. reflexivity. Qed.

Lemma upd_part_init k M a b : upd_part k (k + 1) 0 M a b = M a b.
Proof.
  unfold upd_part. destruct (N.ltb_spec a (k + 1)).
  - cbn [orb]. apply new_low. lia.
  - destruct (N.ltb_spec b 0); [lia|]. destruct (a =? k + 1); reflexivity.
Qed.

Lemma upd_part_start k i M a b : upd_part k i (k + 1) M a b = upd_part k i 0 M a b.
Proof.
  unfold upd_part.
  destruct (N.ltb_spec a i); [reflexivity|]. destruct (N.ltb_spec b 0); [lia|].
  destruct (N.eqb_spec a i); [|reflexivity]. destruct (N.ltb_spec b (k + 1)); [|reflexivity].
  cbn [andb orb]. apply new_low. lia.
Qed.

Lemma upd_part_end k i n M a b : b < n -> upd_part k i n M a b = upd_part k (i + 1) 0 M a b.
Proof. intros Hb. unfold upd_part. ffj_cases; reflexivity. Qed.

Lemma upd_part_final k n M a b : a < n -> upd_part k n 0 M a b = bareis_new k M a b.
Proof. intros Ha. unfold upd_part. ffj_cases; reflexivity. Qed.

Lemma prevp_upd_part k i j M : prevp k (upd_part k i j M) = prevp k M.
Proof. unfold prevp. destruct (N.ltb_spec 0 k); [|reflexivity]. apply upd_part_low. lia. Qed.

Lemma upd_part_step k i j M :
  k < i -> k < j ->
  let M' := upd_part k i j M in
  forall a b,
    fm_set i j ((M' k k * M' i j - M' i k * M' k j) / prevp k M')%Qc M' a b =
    upd_part k i (j + 1) M a b.
Proof.
  intros Hi Hj M' a b. unfold M', fm_set. rewrite prevp_upd_part, upd_part_cur.
  rewrite !upd_part_low by lia.
  destruct (N.eqb_spec a i) as [->|nea]; [destruct (N.eqb_spec b j) as [->|neb]|]; cbn [andb].
  - unfold upd_part, bareis_new. ffj_cases; reflexivity.
  - unfold upd_part. ffj_cases; reflexivity.
  - unfold upd_part. ffj_cases; reflexivity.
Qed.

Lemma bareis_cell_spec n k i j s (M' : fm) :
  repr s n n M' -> k < i -> i < n -> k < j -> j < n -> prevp k M' <> 0%Qc ->
  exists s', bareis_cell n k i j s = Ok s' /\
    repr s' n n (fm_set i j ((M' k k * M' i j - M' i k * M' k j) / prevp k M')%Qc M').
Proof.
  intros HM Hki Hi Hkj Hj Hq. unfold bareis_cell.
  rewrite !(repr_rd s n n M' HM) by lia. cbn [bind]. autorewrite with xfin. unfold prevp in *.
  destruct (N.ltb_spec 0 k).
  - replace ((k - 1) * n + k - 1) with ((k - 1) * n + (k - 1))
      by (generalize ((k - 1) * n); intros x; lia).
    rewrite (repr_rd s n n M' HM) by lia. cbn [bind]. rewrite xdiv_fin by assumption.
    apply (repr_wr s n n M' _ i j _ HM Hi Hj). intros a b _ _. reflexivity.
  - apply (repr_wr s n n M' _ i j _ HM Hi Hj). intros a b _ _. unfold fm_set.
    destruct ((a =? i) && (b =? j)); [|reflexivity]. field. exact Q_apart_0_1.
Qed.

Lemma bareis_upd_spec m n k M :
  repr m n n M -> k < n -> prevp k M <> 0%Qc ->
  exists m', bareis_upd n k m = Ok m' /\ repr m' n n (bareis_new k M).
Proof.
  intros HM Hk Hq. unfold bareis_upd.
  apply (repr_loop n n (fun i => upd_part k i 0 M) M _ (k + 1) n _ m ltac:(lia) HM).
  - intros a b _ _. symmetry. apply upd_part_init.
  - intros i s [Hi1 Hi] Hs.
    apply (repr_loop n n (fun j => upd_part k i j M) _ _ (k + 1) n _ s ltac:(lia) Hs).
    + intros a b _ _. symmetry. apply upd_part_start.
    + intros j t [Hj1 Hj] Ht.
      destruct (bareis_cell_spec n k i j t _ Ht) as (t' & E' & Ht');
        try lia; [rewrite prevp_upd_part; assumption|].
      exists t'. split; [exact E'|]. apply (repr_ext _ _ _ _ _ Ht').
      intros a b _ _. apply upd_part_step; lia.
    + intros a b _ Hb. now apply upd_part_end.
  - intros a b Ha _. now apply upd_part_final.
Qed.

Lemma bareis_find_spec m n k M :
  repr m n n M -> k < n ->
  forall cnt i0, i0 + N.of_nat cnt = n ->
  exists i, bareis_find cnt i0 m n k = Ok i /\ i0 <= i /\ i <= n /\
    (forall t, i0 <= t -> t < i -> M t k = 0%Qc) /\ (i < n -> M i k <> 0%Qc).
Proof.
  intros [HL HV] Hk. induction cnt as [|c IH]; intros i0 Hi0; cbn [bareis_find].
  - exists n. split; [reflexivity|]. split; [lia|]. split; [lia|]. split; intros; lia.
  - rewrite rd_ok by (rewrite HL; apply idx_lt; lia). cbn [bind].
    change (nthx m (i0 * n + k)) with (ent m n i0 k). rewrite HV by lia. cbn [x_is_zero].
    destruct (qc_is_zero (M i0 k)) eqn:Ez.
    + apply qc_is_zero_iff in Ez.
      destruct (IH (i0 + 1)) as (i & E & H1 & H2 & H3 & H4); [lia|].
      exists i. split; [exact E|]. split; [lia|]. split; [lia|]. split; [|exact H4].
      intros t Ht Hti. destruct (N.eq_dec t i0) as [->|ne]; [exact Ez | apply H3; lia].
    + apply qc_is_zero_false in Ez. exists i0. split; [reflexivity|].
      split; [lia|]. split; [lia|]. split; [intros; lia | intros _; exact Ez].
Qed.

Definition blk (k : N) (M : fm) : fm := fun i j => M (k + i) (k + j).
Definition sg (neg : bool) : Qc := if neg then (- (1))%Qc else 1%Qc.

Lemma det_1 T : det 1 T = T 0 0.
Proof. rewrite det_S, altsum_S. cbn [altsum det N.of_nat]. rewrite sgn_0. ring. Qed.

Lemma qc_mul_cancel (c x y : Qc) : c <> 0%Qc -> (c * x = c * y)%Qc -> x = y.
Proof.
  intros Hc H.
  assert (E : (c * (x - y) = 0)%Qc) by (transitivity (c * x - c * y)%Qc; [ring | rewrite H; ring]).
  apply Qcmult_integral in E. destruct E as [E|E]; [contradiction|].
  transitivity (x - y + y)%Qc; [ring | rewrite E; ring].
Qed.

Lemma pivot_sel_spec m n k M neg :
  repr m n n M -> k < n ->
  exists m1 neg1 fin1, pivot_sel n k m neg (Fin (M k k)) = Ok (m1, neg1, fin1) /\
    if fin1 : bool then det (N.to_nat (n - k)) (blk k M) = 0%Qc
    else exists M1, repr m1 n n M1 /\ M1 k k <> 0%Qc /\ prevp k M1 = prevp k M /\
           (sg neg1 * det (N.to_nat (n - k)) (blk k M1) =
            sg neg * det (N.to_nat (n - k)) (blk k M))%Qc.
Proof.
  intros HR Hk. unfold pivot_sel. cbn [x_is_zero].
  destruct (qc_is_zero (M k k)) eqn:Ez.
  - apply qc_is_zero_iff in Ez.
    destruct (bareis_find_spec m n k M HR Hk (N.to_nat (n - (k + 1))) (k + 1))
      as (i & E & H1 & H2 & H3 & H4); [lia|].
    rewrite E. cbn [bind]. destruct (N.eqb_spec i n) as [->|ne].
    + exists m, neg, true. split; [reflexivity|]. apply det_zero_col0; [lia|].
      intros t Ht. unfold blk. replace (k + 0) with k by lia.
      destruct (N.eq_dec t 0) as [->|nz]; [now replace (k + 0) with k by lia | apply H3; lia].
    + destruct (repr_swap m n n M i k HR) as (m' & E' & HR'); try lia.
      rewrite E'. cbn [bind]. exists m', (negb neg), false. split; [reflexivity|].
      exists (fm_swap i k M). split; [exact HR'|]. split; [|split].
      * unfold fm_swap. destruct (N.eqb_spec k i); [lia|]. rewrite N.eqb_refl. apply H4. lia.
      * unfold prevp, fm_swap. ffj_cases; reflexivity.
      * rewrite (det_ext _ (blk k (fm_swap i k M)) (fm_swap (i - k) 0 (blk k M))).
        -- rewrite det_swap by lia. unfold sg. destruct neg; cbn [negb]; ring.
        -- intros a b _ _. unfold blk, fm_swap.
           replace (k + (i - k)) with i by lia. replace (k + 0) with k by lia. ffj_cases; reflexivity.
  - apply qc_is_zero_false in Ez. exists m, neg, false. split; [reflexivity|].
    exists M. split; [exact HR|]. split; [exact Ez|]. split; reflexivity.
Qed.

Definition binv (n : N) (D : Qc) (k : N) (m : list qx) (neg fin : bool) : Prop :=
  if fin then D = 0%Qc
  else exists M, repr m n n M /\ prevp k M <> 0%Qc /\
         (D * qpow (prevp k M) (N.to_nat (n - k - 1)) =
          sg neg * det (N.to_nat (n - k)) (blk k M))%Qc.

Lemma bareis_body_spec n D k m neg fin :
  k + 1 < n -> binv n D k m neg fin ->
  exists m' neg' fin', bareis_body n k (m, neg, fin) = Ok (m', neg', fin') /\
    binv n D (k + 1) m' neg' fin'.
Proof.
  intros Hk HI. unfold bareis_body. destruct fin.
  - exists m, neg, true. split; [reflexivity | exact HI].
  - destruct HI as (M & HR & Hq & HD).
    assert (Rkk : rd m (k * n + k) = Ok (Fin (M k k))).
    { destruct HR as [HL HV]. rewrite rd_ok by (rewrite HL; apply idx_lt; lia).
      f_equal. apply HV; lia. }
    rewrite Rkk. cbn [bind].
    destruct (pivot_sel_spec m n k M neg HR) as (m1 & neg1 & fin1 & E1 & H1); [lia|].
    rewrite E1. cbn [bind]. destruct fin1.
    + exists m1, neg1, true. split; [reflexivity|]. unfold binv.
      rewrite H1 in HD. assert (E : (D * qpow (prevp k M) (N.to_nat (n - k - 1)) = 0)%Qc)
        by (rewrite HD; ring).
      apply Qcmult_integral in E. destruct E as [E|E]; [exact E|].
      exfalso. revert E. now apply qpow_nonzero.
    + destruct H1 as (M1 & HR1 & Hp & Hq1 & Hs).
      destruct (bareis_upd_spec m1 n k M1 HR1) as (m2 & E2 & HR2); [lia | now rewrite Hq1 |].
      rewrite E2. cbn [bind]. exists m2, neg1, false. split; [reflexivity|].
      exists (bareis_new k M1). split; [exact HR2|].
      assert (Epp : prevp (k + 1) (bareis_new k M1) = M1 k k).
      { unfold prevp. destruct (N.ltb_spec 0 (k + 1)); [|lia].
        replace (k + 1 - 1) with k by lia. apply new_low. lia. }
      rewrite Epp. split; [exact Hp|].
      set (r' := N.to_nat (n - (k + 1) - 1)).
      replace (N.to_nat (n - (k + 1))) with (S r') by lia.
      replace (N.to_nat (n - k - 1)) with (S r') in HD by lia.
      replace (N.to_nat (n - k)) with (S (S r')) in HD, Hs by lia.
      set (p := M1 k k) in *. set (q := prevp k M) in *.
      pose proof (bareiss_step (S r') (blk k M1) (blk (k + 1) (bareis_new k M1)) p q) as HB.
      assert (HBs : (qpow p (S r') * det (S (S r')) (blk k M1) =
                     p * qpow q (S r') * det (S r') (blk (k + 1) (bareis_new k M1)))%Qc).
      { apply HB; try assumption.
        - unfold blk, p. now replace (k + 0) with k by lia.
        - intros a b Ha Hb. unfold blk, bareis_new.
          destruct (N.ltb_spec k (k + 1 + a)); [|lia]. destruct (N.ltb_spec k (k + 1 + b)); [|lia].
          cbn [andb]. rewrite Hq1. fold q. fold p.
          replace (k + (a + 1)) with (k + 1 + a) by lia.
          replace (k + (b + 1)) with (k + 1 + b) by lia.
          replace (k + 0) with k by lia. reflexivity. }
      apply (qc_mul_cancel (p * qpow q (S r'))%Qc).
      * intros E. apply Qcmult_integral in E. destruct E as [E|E]; [contradiction|].
        revert E. now apply qpow_nonzero.
      * transitivity (D * qpow q (S r') * qpow p (S r'))%Qc; [cbn [qpow]; ring|].
        rewrite HD, <- Hs.
        transitivity (sg neg1 * (qpow p (S r') * det (S (S r')) (blk k M1)))%Qc; [ring|].
        rewrite HBs. ring.
Qed.

Theorem det_bareis_elim A n :
  good A n n -> 4 <= n ->
  (do st <- for_range 0 (n - 1) (bareis_body n) (dm A, false, false);
   let '(m, neg, fin) := st in
   if fin then Ok x0
   else do e <- rd m (n * n - 1); Ok (if neg then xmul xm1 e else e)) =
  Ok (Fin (det (N.to_nat n) (fm_of A))).
Proof.
  intros G Hn. set (D := det (N.to_nat n) (fm_of A)).
  pose (P := fun (k : N) (st : list qx * bool * bool) =>
    binv n D k (fst (fst st)) (snd (fst st)) (snd st)).
  destruct (for_range_inv P 0 (n - 1) (bareis_body n) (dm A, false, false)) as (st & E & HP).
  - lia.
  - unfold P. cbn [fst snd]. exists (fm_of A). split; [now apply good_repr|].
    unfold prevp. cbn [N.ltb N.compare]. split; [exact Q_apart_0_1|].
    replace (N.to_nat (n - 0)) with (N.to_nat n) by lia.
    rewrite (det_ext _ (blk 0 (fm_of A)) (fm_of A)) by (intros i j _ _; reflexivity).
    fold D. clear. induction (N.to_nat (n - 0 - 1)) as [|t IH]; cbn [qpow sg] in *; [ring|].
    rewrite <- IH. cbn [sg]. ring.
  - intros k [[m neg] fin] [_ Hk] HPk. unfold P in HPk. cbn [fst snd] in HPk.
    destruct (bareis_body_spec n D k m neg fin) as (m' & neg' & fin' & E' & HI'); [lia | exact HPk |].
    exists (m', neg', fin'). split; [exact E' | exact HI'].
  - rewrite E. cbn [bind]. destruct st as [[m neg] fin]. unfold P in HP. cbn [fst snd] in HP.
    destruct fin.
    + unfold binv in HP. rewrite HP. reflexivity.
    + destruct HP as (M & [HL HV] & Hq & HD).
      replace (n * n - 1) with ((n - 1) * n + (n - 1)) by nia.
      rewrite rd_ok by (rewrite HL; apply idx_lt; lia). cbn [bind].
      change (nthx m ((n - 1) * n + (n - 1))) with (ent m n (n - 1) (n - 1)).
      rewrite HV by lia.
      replace (N.to_nat (n - (n - 1) - 1)) with O in HD by lia.
      replace (N.to_nat (n - (n - 1))) with 1%nat in HD by lia.
      rewrite det_1 in HD. cbn [qpow] in HD. unfold blk in HD.
      replace (n - 1 + 0) with (n - 1) in HD by lia.
      assert (ED : D = (sg neg * M (n - 1)%N (n - 1)%N)%Qc) by (rewrite <- HD; ring).
      rewrite ED. unfold sg. destruct neg.
      * rewrite xmul_m1_fin. do 2 f_equal; ring.
      * do 2 f_equal; ring.
Qed.

(* the Bareiss branch *)
Theorem det_bareis_general A n :
  good A n n -> 4 <= n ->
  is_lower A = Ok false -> is_upper A = Ok false ->
  det_bareis A = Ok (Fin (det (N.to_nat n) (fm_of A))).
Proof.
  intros G Hn HL HU. pose proof G as (W & F & Hr & Hc).
  rewrite (det_bareis_unfold4 A n Hr Hn). rewrite HL. cbn [bind]. rewrite HU. cbn [bind].
  now apply det_bareis_elim.
Qed.

Theorem det_bareis_correct A n :
  good A n n -> 1 <= n -> det_bareis A = Ok (Fin (det (N.to_nat n) (fm_of A))).
Proof.
  intros G Hn.
  destruct (N.eq_dec n 1) as [->|n1]; [now apply det_bareis_1|].
  destruct (N.eq_dec n 2) as [->|n2]; [now apply det_bareis_2|].
  destruct (N.eq_dec n 3) as [->|n3]; [now apply det_bareis_3|].
  assert (H4 : 4 <= n) by lia.
  destruct (is_lower_spec A n G) as (lo & EL & _).
  destruct (is_upper_spec A n G) as (up & EU & _); [lia|].
  destruct lo.
  - apply det_bareis_tri_det; auto.
  - destruct up.
    + apply det_bareis_tri_det; auto.
    + now apply det_bareis_general.
Qed.
