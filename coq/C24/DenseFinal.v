(* C24 -- end-to-end theorems: the solvers and inverses built on (pivoted) LU, obtained by
   composing the factorisation theorems (DenseLU*.v) with the substitution theorems
   (DenseSolve.v). *)
From SE Require Import C24.DenseModel C24.DenseBase C24.DenseSpec C24.DenseOps
  C24.DenseLU C24.DenseLU2 C24.DenseLU3 C24.DenseLU4 C24.DenseSolve C24.DenseGuards.
From Coq Require Import Lia ZifyBool ZifyNat ZifyN.
Local Open Scope N_scope.
Local Open Scope res_scope.

Lemma perm_ok_bridge n pl : DenseLU3.perm_ok n pl -> DenseSolve.perm_ok n pl.
Proof.
  unfold DenseLU3.perm_ok, DenseSolve.perm_ok. apply Forall_impl. intros [p q]. cbn. lia.
Qed.

(* pivoted_LU_solve either solves the system or reports that a column has no pivot *)
Theorem pivoted_LU_solve_spec A b x n s :
  good A n n -> good b n s -> drow x = n -> dcol x = s -> 0 < n ->
  (exists x', pivoted_LU_solve A b x = Ok x' /\ good x' n s /\
     fm_eq n s (fm_mul n (fm_of A) (fm_of x')) (fm_of b))
  \/ (pivoted_LU_solve A b x = ErrExn EXN_RANKDEF /\ lu_stuck n (fm_of A)).
Proof.
  intros GA Gb Hrx Hcx Hn.
  destruct (pivoted_LU_total A (mzero n n) (mzero n n) [] n GA (wf_mzero n n))
    as [(L & U & pl & E & GL & GU & HuL & HlL & HuU & HnU & Hpl & Hmul) | (E & Hs)];
    try reflexivity.
  - left. cbn [app] in E.
    apply (pivoted_LU_solve_correct A b x L U pl n s); try assumption.
    + now apply perm_ok_bridge.
  - right. split; [|assumption]. destruct GA as (_ & _ & Hr & Hc).
    unfold pivoted_LU_solve. rewrite Hr, Hc, E. reflexivity.
Qed.

Theorem inverse_pivoted_LU_spec A B n :
  good A n n -> drow B = n -> dcol B = n -> 0 < n ->
  (exists B', inverse_pivoted_LU A B = Ok B' /\ good B' n n /\
     fm_eq n n (fm_mul n (fm_of A) (fm_of B')) fm_id)
  \/ (inverse_pivoted_LU A B = ErrExn EXN_RANKDEF /\ lu_stuck n (fm_of A)).
Proof.
  intros GA HrB HcB Hn.
  destruct (pivoted_LU_total A (mzero n n) (mzero n n) [] n GA (wf_mzero n n))
    as [(L & U & pl & E & GL & GU & HuL & HlL & HuU & HnU & Hpl & Hmul) | (E & Hs)];
    try reflexivity.
  - left. cbn [app] in E.
    apply (inverse_pivoted_LU_correct A B L U pl n); try assumption.
    + now apply perm_ok_bridge.
  - right. split; [|assumption]. destruct GA as (_ & _ & Hr & Hc).
    unfold inverse_pivoted_LU, pivoted_LU_solve.
    destruct (eye_mzero_spec n) as (e & Ee & Ge & _).
    rewrite Hr, Hc, Ee. cbn [bind]. rewrite E. reflexivity.
Qed.

Lemma guard_lu_inv A n :
  good A n n -> guard_lu A = true ->
  exists L U, LU A (mzero n n) (mzero n n) = Ok (L, U) /\
    good L n n /\ good U n n /\
    unit_diag n (fm_of L) /\ lower_tri n (fm_of L) /\ upper_tri n (fm_of U) /\
    nonzero_diag n (fm_of U) /\
    fm_eq n n (fm_mul n (fm_of L) (fm_of U)) (fm_of A).
Proof.
  intros GA Hg. pose proof GA as (_ & _ & Hr & Hc). unfold guard_lu in Hg. rewrite Hr, Hc in Hg.
  destruct (LU A (mzero n n) (mzero n n)) as [[L U]| | |] eqn:E; try discriminate.
  rewrite diag_nonzero_b_spec in Hg.
  destruct (LU_partial A (mzero n n) (mzero n n) n L U E GA (wf_mzero n n))
    as (GL & GU & H1 & H2 & H3 & H4); try reflexivity.
  { intros j Hj. apply Hg. lia. }
  exists L, U. split; [reflexivity|]. repeat (split; [assumption|]). split; [|assumption].
  intros j Hj Hz. specialize (Hg j Hj).
  destruct GU as (WU & FU & HrU & HcU).
  rewrite (fin_entry U j j) in Hg by (try assumption; lia).
  apply qc_is_zero_false in Hg. apply Hg. exact Hz.
Qed.

(* under the guard "LU meets no zero pivot" the unpivoted solver is right *)
Theorem LU_solve_guarded A b x n s :
  good A n n -> good b n s -> drow x = n -> dcol x = s -> 0 < n ->
  guard_lu A = true ->
  exists x', LU_solve A b x = Ok x' /\ good x' n s /\
    fm_eq n s (fm_mul n (fm_of A) (fm_of x')) (fm_of b).
Proof.
  intros GA Gb Hrx Hcx Hn Hg.
  destruct (guard_lu_inv A n GA Hg) as (L & U & E & GL & GU & H1 & H2 & H3 & H4 & H5).
  apply (LU_solve_correct A b x L U n s); assumption.
Qed.

Theorem inverse_LU_guarded A B n :
  good A n n -> drow B = n -> dcol B = n -> 0 < n ->
  guard_lu A = true ->
  exists B', inverse_LU A B = Ok B' /\ good B' n n /\
    fm_eq n n (fm_mul n (fm_of A) (fm_of B')) fm_id.
Proof.
  intros GA HrB HcB Hn Hg.
  destruct (guard_lu_inv A n GA Hg) as (L & U & E & GL & GU & H1 & H2 & H3 & H4 & H5).
  apply (inverse_LU_correct A B L U n); assumption.
Qed.
