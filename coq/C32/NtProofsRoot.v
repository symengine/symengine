(* C32 -- proofs: the integer n-th root used as the documented meaning of mpz_root
   (bisection over the bits) is the truncated root; perfect squares. *)
From SE Require Import C32.NtSpec.
From Coq Require Import Lia ZifyBool.
Local Open Scope Z_scope.

(* an exact p-th root, if there is one, is the truncated root *)
Lemma root_unique r c p n :
  1 <= p -> 0 <= r -> 0 <= c -> r ^ p <= n < (r + 1) ^ p -> c ^ p = n -> c = r.
Proof.
  intros Hp Hr Hc Hb Hcn.
  destruct (Z.lt_trichotomy c r) as [H|[H|H]]; [exfalso|assumption|exfalso].
  - pose proof (Z.pow_lt_mono_l c r p ltac:(lia) ltac:(lia)). lia.
  - pose proof (Z.pow_le_mono_l (r + 1) c p ltac:(lia)). lia.
Qed.

Lemma iroot_bits_spec : forall bits i n acc,
  1 <= n -> 0 <= acc -> acc ^ n <= i < (acc + 2 ^ Z.of_nat bits) ^ n ->
  let r := iroot_bits bits i n acc in acc <= r /\ r ^ n <= i < (r + 1) ^ n.
Proof.
  induction bits as [|b IH]; intros i n acc Hn Hacc Hb; cbn [iroot_bits].
  - change (2 ^ Z.of_nat 0) with 1 in Hb. cbv zeta. split; [lia|assumption].
  - rewrite Nat2Z.inj_succ, Z.pow_succ_r in Hb by lia.
    cbv zeta. pose proof (Z.pow_pos_nonneg 2 (Z.of_nat b) ltac:(lia) ltac:(lia)) as Hpos.
    destruct ((acc + 2 ^ Z.of_nat b) ^ n <=? i) eqn:E.
    + destruct (IH i n (acc + 2 ^ Z.of_nat b) Hn ltac:(lia)) as (H1 & H2).
      { split; [lia|]. replace (acc + 2 ^ Z.of_nat b + 2 ^ Z.of_nat b) with (acc + 2 * 2 ^ Z.of_nat b) by lia. lia. }
      split; [lia|assumption].
    + destruct (IH i n acc Hn Hacc) as (H1 & H2); [lia|]. split; assumption.
Qed.

Theorem iroot_correct i n :
  0 <= i -> 1 <= n -> 0 <= iroot i n /\ iroot i n ^ n <= i < (iroot i n + 1) ^ n.
Proof.
  intros Hi Hn. unfold iroot.
  set (bits := Z.to_nat (Z.log2 i / n + 1)).
  destruct (iroot_bits_spec bits i n 0 Hn ltac:(lia)) as (H1 & H2); [|split; assumption].
  rewrite Z.pow_0_l by lia. split; [assumption|].
  rewrite Z.add_0_l, <- Z.pow_mul_r by lia.
  unfold bits. pose proof (Z.log2_nonneg i).
  assert (0 <= Z.log2 i / n) by (apply Z.div_pos; lia).
  rewrite Z2Nat.id by lia.
  destruct (Z.eq_dec i 0) as [->|Hi0]; [apply Z.pow_pos_nonneg; nia|].
  pose proof (Z.log2_spec i ltac:(lia)) as Hl.
  assert (Z.log2 i < (Z.log2 i / n + 1) * n).
  { pose proof (Z.div_mod (Z.log2 i) n ltac:(lia)). pose proof (Z.mod_pos_bound (Z.log2 i) n ltac:(lia)). nia. }
  assert (2 ^ Z.succ (Z.log2 i) <= 2 ^ ((Z.log2 i / n + 1) * n)) by (apply Z.pow_le_mono_r; lia).
  lia.
Qed.

(* mp_root: exactness flag and truncated root *)
Theorem mp_root_correct i n :
  0 <= i -> 1 <= n ->
  let '(exact, r) := mp_root i n in
  0 <= r /\ r ^ n <= i < (r + 1) ^ n /\ (exact = true <-> exists c, 0 <= c /\ c ^ n = i).
Proof.
  intros Hi Hn. unfold mp_root. destruct (iroot_correct i n Hi Hn) as (H0 & H1).
  split; [assumption|]. split; [assumption|]. split.
  - intros E. exists (iroot i n). split; [assumption|lia].
  - intros (c & Hc & Hci). pose proof (root_unique _ c n i Hn H0 Hc H1 Hci) as ->. lia.
Qed.

Theorem perfect_square_correct i :
  mp_perfect_square_p i = true <-> exists c, c * c = i.
Proof.
  unfold mp_perfect_square_p. destruct (i <? 0) eqn:E.
  - split; [discriminate|]. intros (c & Hc). nia.
  - cbv zeta. split.
    + intros H1. exists (Z.sqrt i). lia.
    + intros (c & <-). rewrite <- (Z.abs_square c), Z.sqrt_square by lia. lia.
Qed.
