(* C32 -- facts about the exhaustive searches of NtBrute.v that let a sweep over a range do a
   search once instead of once per element. *)
From SE Require Import C32.NtBrute C32.NtProofsPowm.
From Coq Require Import Lia.
Local Open Scope Z_scope.

Lemma in_zrange_from x cnt : forall lo, In x (zrange_from lo cnt) <-> lo <= x < lo + Z.of_nat cnt.
Proof.
  induction cnt as [|c IH]; intros lo; cbn [zrange_from In]; [lia|]. rewrite IH. lia.
Qed.

Lemma in_zrange x lo hi : In x (zrange lo hi) <-> lo <= x <= hi.
Proof. unfold zrange. rewrite in_zrange_from. lia. Qed.

Lemma forallb_impl_in {A} (f g : A -> bool) l :
  (forall x, In x l -> f x = true -> g x = true) -> forallb f l = true -> forallb g l = true.
Proof. rewrite !forallb_forall. auto. Qed.

(* a check that does not see the sign of n need only be run on the absolute values *)
Lemma forallb_abs f (l half : list Z) :
  (forall n, 0 < n -> f n = true -> f (- n) = true) -> (forall n, In n l -> In (Z.abs n) half) ->
  forallb f half = true -> forallb f l = true.
Proof.
  intros Hf Hl H. rewrite forallb_forall in *. intros n Hn. apply Hl, H in Hn.
  destruct (Z.abs_spec n) as [[Hs E]|[Hs E]]; rewrite E in Hn; [assumption|].
  rewrite <- (Z.opp_involutive n). apply Hf; [lia|assumption].
Qed.

Lemma forallb_zrange_sym f b :
  (forall n, 0 < n -> f n = true -> f (- n) = true) ->
  forallb f (zrange 0 b) = true -> forallb f (zrange (- b) b) = true.
Proof. intros Hf. apply forallb_abs; [assumption|]. intros n. rewrite !in_zrange. lia. Qed.

Lemma existsb_map {A B} (p : B -> bool) (h : A -> B) l :
  existsb p (map h l) = existsb (fun x => p (h x)) l.
Proof. induction l as [|x l IH]; cbn; congruence. Qed.

Lemma existsb_ext {A} (p q : A -> bool) l : (forall x, p x = q x) -> existsb p l = existsb q l.
Proof. intros E. induction l as [|x l IH]; cbn; congruence. Qed.

(* [find] on a range returns the least element that passes *)
Lemma find_zrange_from_le p t cnt : forall lo,
  lo <= t < lo + Z.of_nat cnt -> p t = true -> exists k, find p (zrange_from lo cnt) = Some k /\ k <= t.
Proof.
  induction cnt as [|c IH]; intros lo Ht Hp; cbn [zrange_from find]; [lia|].
  destruct (p lo) eqn:E; [exists lo; split; [reflexivity|lia]|].
  apply IH; [|assumption]. assert (t <> lo) by congruence. lia.
Qed.

Lemma order_brute_le a n t :
  1 <= t <= n -> powm_nn a t n = 1 mod n -> exists k, order_brute a n = Some k /\ k <= t.
Proof.
  intros Ht Hp. apply find_zrange_from_le; [lia|]. apply Z.eqb_eq, Hp.
Qed.

(* [order_brute] computes a^k mod n afresh for every k; here the power is carried along *)
Fixpoint order_from (cnt : nat) (k t a n : Z) : option Z :=
  match cnt with
  | O => None
  | S c => if t =? 1 mod n then Some k else order_from c (k + 1) (t * a mod n) a n
  end.

Lemma order_from_find a n cnt : 0 < n -> forall k, 0 <= k ->
  find (fun k => powm_nn a k n =? 1 mod n) (zrange_from k cnt) = order_from cnt k (a ^ k mod n) a n.
Proof.
  intros Hn. induction cnt as [|c IH]; intros k Hk; cbn [zrange_from find order_from]; [reflexivity|].
  rewrite powm_nn_correct, (Z.abs_eq n) by lia.
  rewrite IH, Z.add_1_r, Z.pow_succ_r, (Z.mul_comm a), Z.mul_mod_idemp_l by lia. reflexivity.
Qed.

Lemma order_brute_from a n : 0 < n -> order_brute a n = order_from (Z.to_nat n) 1 (a mod n) a n.
Proof.
  intros Hn. unfold order_brute, zrange. rewrite order_from_find, Z.pow_1_r by lia.
  f_equal. lia.
Qed.

(* if x^t = 1 for every unit x and some t below the number of units, no unit generates them all *)
Definition units_exponent (n t : Z) : bool :=
  forallb (fun x => negb (Z.gcd x n =? 1) || (powm_nn x t n =? 1 mod n)) (zrange 1 (n - 1)).

Lemma no_generator n t :
  0 < t < totient_brute n -> t <= n -> units_exponent n t = true ->
  existsb (fun g => is_primitive_root_brute g n) (zrange 1 (n - 1)) = false.
Proof.
  intros Ht Hn Hu. apply Bool.not_true_iff_false. intros H.
  apply existsb_exists in H as (g & Hg & Hr). unfold is_primitive_root_brute in Hr.
  apply andb_prop in Hr as [Hc Ho].
  unfold units_exponent in Hu. rewrite forallb_forall in Hu. specialize (Hu g Hg).
  rewrite Hc in Hu. cbn in Hu.
  destruct (order_brute_le g n t) as (k & Hk & Hle); [lia|apply Z.eqb_eq, Hu|].
  rewrite Hk in Ho. cbn in Ho. apply Z.eqb_eq in Ho. lia.
Qed.

(* the k-th powers modulo m, so that [has_root_brute a k m] is a lookup of a mod m *)
Definition power_residues (k m : Z) : list Z := map (fun x => x ^ k mod m) (zrange 0 (m - 1)).

Lemma has_root_brute_residues a k m :
  has_root_brute a k m = existsb (Z.eqb (a mod m)) (power_residues k m).
Proof.
  unfold has_root_brute, power_residues. rewrite existsb_map. apply existsb_ext. intros x.
  apply Bool.eq_true_iff_eq. rewrite !Z.eqb_eq. rewrite Zminus_mod. split; intros H.
  - destruct (Z.eq_dec m 0) as [->|Hm]; [rewrite !Zmod_0_r in *; lia|].
    pose proof (Z.mod_bound_or (x ^ k) m Hm). pose proof (Z.mod_bound_or a m Hm).
    apply Z.mod_divide in H; [|assumption]. destruct H as [c Hc].
    assert (c = 0) by nia. lia.
  - rewrite H, Z.sub_diag. apply Zmod_0_l.
Qed.

Lemma kronecker_brute_opp_pos a n : 0 < n ->
  kronecker_brute a (- n) = (if a <? 0 then -1 else 1) * kronecker_brute a n.
Proof.
  intros Hn. unfold kronecker_brute. rewrite Z.abs_opp. destruct n as [|q|q]; try lia.
  cbn [Z.opp Z.eqb Z.ltb Z.compare andb]. ring.
Qed.

