(* C32 -- proofs: crt returns a solution iff the congruences are solvable; the
   solution is unique modulo the lcm of the moduli and (from two moduli on) reduced. *)
From SE Require Import C32.NtSpec C32.NtProofsDiv C32.NtProofsGcd.
From Coq Require Import Lia ZifyBool.
Local Open Scope Z_scope.
Local Open Scope res_scope.

Lemma divisible_iff a b : divisible a b = true <-> (b | a).
Proof. exact (proj2 (proj2 (gcd_lcm_correct a b))). Qed.

Lemma lcm_list_snoc ms x : lcm_list (ms ++ [x]) = Z.lcm (lcm_list ms) x.
Proof. unfold lcm_list. rewrite fold_left_app. reflexivity. Qed.

Lemma map_snd_combine {A B} (l' : list B) : forall l : list A,
  (length l' <= length l)%nat -> map snd (combine l l') = l'.
Proof.
  induction l' as [|y l' IH]; intros l Hlen; [destruct l; reflexivity|].
  destruct l as [|x l]; [cbn in Hlen; lia|]. cbn. f_equal. apply IH. cbn in Hlen. lia.
Qed.

Lemma solves_app x l1 l2 : solves x (l1 ++ l2) <-> solves x l1 /\ solves x l2.
Proof. unfold solves. apply Forall_app. Qed.

(* the loop's invariant: the congruences taken in so far are solved exactly by the class of r modulo m *)
Definition crt_inv (m r : Z) (done : list (Z * Z)) : Prop :=
  0 < m /\ (forall x, solves x done <-> cong m x r) /\ m = lcm_list (map snd done).

Lemma cong_refl m x : cong m x x.
Proof. unfold cong. rewrite Z.sub_diag. apply Z.divide_0_r. Qed.

Lemma quot_exact t g : g <> 0 -> (g | t) -> t = g * Z.quot t g.
Proof.
  intros Hg (k & ->). rewrite Z.quot_mul by assumption. ring.
Qed.

Lemma gcd_pos_l a b : 0 < a -> 0 < Z.gcd a b.
Proof.
  intros Ha. pose proof (Z.gcd_nonneg a b).
  destruct (Z.eq_dec (Z.gcd a b) 0) as [E|]; [apply Z.gcd_eq_0_l in E|]; lia.
Qed.

(* one turn of the loop, on numbers: x = r (mod m) and x = ri (mod mi), compatible since g = gcd m mi divides
   ri - r, are merged into x = r2 (mod lcm m mi); s is the Bezout cofactor of m *)
Lemma crt_pair m mi r ri s t :
  0 < m -> 0 < mi -> s * m + t * mi = Z.gcd m mi -> (Z.gcd m mi | ri - r) ->
  let g := Z.gcd m mi in
  let m1 := m * Z.quot mi g in
  let r2 := (r + m * s * Z.quot (ri - r) g) mod m1 in
  m1 = Z.lcm m mi /\ 0 <= r2 < m1 /\ (m | r2 - r) /\ (mi | r2 - ri).
Proof.
  intros Hm Hmi Hb Ed g m1 r2. fold g in Hb, Ed.
  pose proof (gcd_pos_l m mi Hm) as Hg. fold g in Hg.
  set (tq := Z.quot (ri - r) g) in *. set (mq := Z.quot mi g) in *.
  assert (Htq : ri - r = g * tq) by (apply quot_exact; [lia|exact Ed]).
  assert (Hmq : mi = g * mq) by (apply quot_exact; [lia|apply Z.gcd_divide_r]).
  assert (Hmq0 : 0 < mq) by nia.
  assert (Hm1 : 0 < m1) by (unfold m1; nia).
  set (r1 := r + m * s * tq) in *.
  assert (Hc21 : (m1 | r2 - r1)).
  { exists (- (r1 / m1)). unfold r2. pose proof (Z.div_mod r1 m1). lia. }
  split; [|split; [apply Z.mod_pos_bound; assumption|split]].
  - unfold Z.lcm. fold g. unfold m1, mq.
    rewrite <- Z.quot_div_nonneg by lia. rewrite Z.abs_eq by (fold mq; lia). reflexivity.
  - replace (r2 - r) with ((r2 - r1) + m * (s * tq)) by (unfold r1; ring).
    apply Z.divide_add_r; [|apply Z.divide_factor_l].
    eapply Z.divide_trans; [|exact Hc21]. exists mq. unfold m1. ring.
  - assert (Hx : r1 - ri = mi * (- t * tq)) by (unfold r1; rewrite <- Hb in Htq; lia).
    replace (r2 - ri) with ((r2 - r1) + mi * (- t * tq)) by lia.
    apply Z.divide_add_r; [|apply Z.divide_factor_l].
    eapply Z.divide_trans; [|exact Hc21].
    destruct (Z.gcd_divide_l m mi) as (m' & Hm'). fold g in Hm'. exists m'. unfold m1. rewrite Hmq. rewrite Hm' at 1. ring.
Qed.

Lemma crt_inv_single m r : 0 < m -> crt_inv m r [(r, m)].
Proof.
  intros Hm. split; [assumption|]. split.
  - intros x. split; [intros Hx; exact (Forall_inv Hx)|intros Hx; constructor; [exact Hx|constructor]].
  - cbn. unfold lcm_list. cbn. rewrite Z.lcm_1_l. lia.
Qed.

(* the invariant takes the merged congruence in *)
Lemma crt_inv_snoc m r done mi ri r2 :
  crt_inv m r done -> 0 < Z.lcm m mi -> (m | r2 - r) -> (mi | r2 - ri) ->
  crt_inv (Z.lcm m mi) r2 (done ++ [(ri, mi)]).
Proof.
  intros (Hm & Hs & Hl) Hm1 Hc2r Hc2ri. split; [assumption|]. split.
  - intros x. rewrite solves_app, Hs. unfold solves, cong. split.
    + intros [H1 H2]. apply Forall_inv in H2. cbn [fst snd] in H2. apply Z.lcm_least.
      * replace (x - r2) with ((x - r) - (r2 - r)) by ring. apply Z.divide_sub_r; assumption.
      * replace (x - r2) with ((x - ri) - (r2 - ri)) by ring. apply Z.divide_sub_r; assumption.
    + intros H. split; [|constructor; [cbn [fst snd]|constructor]].
      * replace (x - r) with ((x - r2) + (r2 - r)) by ring. apply Z.divide_add_r; [|assumption].
        eapply Z.divide_trans; [apply Z.divide_lcm_l|exact H].
      * replace (x - ri) with ((x - r2) + (r2 - ri)) by ring. apply Z.divide_add_r; [|assumption].
        eapply Z.divide_trans; [apply Z.divide_lcm_r|exact H].
  - rewrite map_app. cbn [map snd]. rewrite lcm_list_snoc, <- Hl. reflexivity.
Qed.

(* a next congruence whose remainder differs from r by a non-multiple of gcd m mi leaves no solution *)
Lemma crt_inv_incompatible m r done mi ri rest :
  crt_inv m r done -> ~ (Z.gcd m mi | ri - r) -> forall x, ~ solves x (done ++ (ri, mi) :: rest).
Proof.
  intros (_ & Hs & _) Hnd x Hx. apply solves_app in Hx. destruct Hx as [Hx1 Hx2].
  pose proof (Forall_inv Hx2) as Hx3. cbn in Hx3. unfold cong in *.
  apply Hnd. replace (ri - r) with ((x - r) - (x - ri)) by ring. apply Z.divide_sub_r.
  - eapply Z.divide_trans; [apply Z.gcd_divide_l|]. apply Hs. exact Hx1.
  - eapply Z.divide_trans; [apply Z.gcd_divide_r|]. exact Hx3.
Qed.

Lemma crt_loop_correct c :
  forall mods rems m r done,
    Forall (fun x => 0 < x) mods -> (length mods <= length rems)%nat ->
    crt_inv m r done ->
    crt_post (crt_loop c m r rems mods) (mods <> [] \/ 0 <= r < m) (done ++ combine rems mods).
Proof.
  induction mods as [|mi mods IH]; intros rems m r done Hpos Hlen Hinv.
  - destruct Hinv as (Hm & Hs & Hl).
    (* crt_loop is structural in rems and only reduces on a constructor there *)
    destruct rems; cbn [crt_loop combine]; rewrite app_nil_r; unfold crt_post.
    all: split; [apply Hs, cong_refl|]; split; [rewrite <- Hl; intros y; apply Hs|];
      intros [H|H]; [congruence| rewrite <- Hl; exact H].
  - destruct rems as [|ri rems]; [cbn in Hlen; lia|].
    cbn [crt_loop combine].
    destruct (gcdext_gcd c m mi) as (s & t & E & Hb). rewrite E. cbn [bind].
    pose proof (Forall_inv Hpos) as Hmi. pose proof (Forall_inv_tail Hpos) as Hpos'. cbn beta in Hmi.
    pose proof Hinv as (Hm & _).
    pose proof (gcd_pos_l m mi Hm) as Hg.
    destruct (divisible (ri - r) (Z.gcd m mi)) eqn:Ed; cbn [negb].
    + apply divisible_iff in Ed.
      destruct (crt_pair m mi r ri s t Hm Hmi Hb Ed) as (Hlcm & Hr2 & Hc2r & Hc2ri).
      rewrite !tdiv_q_quot by lia. cbn [bind]. rewrite fdiv_r_mod by lia. cbn [bind].
      set (m1 := m * Z.quot mi (Z.gcd m mi)) in *.
      set (r2 := (r + m * s * Z.quot (ri - r) (Z.gcd m mi)) mod m1) in *.
      specialize (IH rems m1 r2 (done ++ [(ri, mi)]) Hpos' ltac:(cbn in Hlen; lia)).
      rewrite <- app_assoc in IH. cbn [app] in IH.
      assert (Hinv' : crt_inv m1 r2 (done ++ [(ri, mi)])).
      { rewrite Hlcm. apply (crt_inv_snoc m r); [assumption|rewrite <- Hlcm; lia|assumption..]. }
      specialize (IH Hinv').
      destruct (crt_loop c m1 r2 rems mods) as [[x|]| | |]; cbn [crt_post] in *; try exact IH.
      destruct IH as (I1 & I2 & I3). split; [exact I1|]. split; [exact I2|].
      intros _. apply I3. right. exact Hr2.
    + cbn [crt_post]. apply (crt_inv_incompatible m r); [assumption|].
      intros Hdv. apply divisible_iff in Hdv. congruence.
Qed.

(* the system of congruences handed to crt: the first |mod| remainders with the moduli *)
Theorem crt_correct c rems mods :
  mods <> [] -> (length mods <= length rems)%nat -> Forall (fun x => 0 < x) mods ->
  crt_post (nt_crt c rems mods) (2 <= length mods)%nat (combine rems mods) /\
  map snd (combine rems mods) = mods.
Proof.
  intros Hne Hlen Hpos. split.
  - unfold nt_crt.
    destruct (length rems <? length mods)%nat eqn:E; [apply Nat.ltb_lt in E; lia|].
    destruct mods as [|m0 mods]; [congruence|].
    destruct rems as [|r0 rems]; [cbn in Hlen; lia|].
    pose proof (Forall_inv Hpos) as Hm0. pose proof (Forall_inv_tail Hpos) as Hpos'. cbn beta in Hm0.
    pose proof (crt_loop_correct c mods rems m0 r0 [(r0, m0)] Hpos' ltac:(cbn in Hlen; lia)) as H.
    cbn [app] in H. cbn [combine].
    specialize (H (crt_inv_single m0 r0 Hm0)).
    destruct (crt_loop c m0 r0 rems mods) as [[x|]| | |]; cbn [crt_post] in *; try exact H.
    destruct H as (I1 & I2 & I3). split; [exact I1|]. split; [exact I2|].
    intros Hl. apply I3. left. destruct mods; [cbn in Hl; lia|congruence].
  - apply map_snd_combine, Hlen.
Qed.

(* argument checks of crt *)
Theorem crt_exceptions c rems mods :
  (length rems < length mods)%nat \/ mods = [] -> nt_crt c rems mods = ErrExn EXN_SYMENGINE.
Proof.
  intros [H| ->]; unfold nt_crt.
  - apply Nat.ltb_lt in H. rewrite H. reflexivity.
  - destruct (length rems <? length (@nil Z))%nat; reflexivity.
Qed.
