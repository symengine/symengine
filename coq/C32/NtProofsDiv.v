(* C32 -- proofs: the two division conventions, gcd, lcm, divides. *)
From SE Require Import C32.NtSpec.
From Coq Require Import Lia ZifyBool.
Local Open Scope Z_scope.
Local Open Scope res_scope.

Lemma abs_mul_lt_1 d k : Z.abs (d * k) < Z.abs d -> k = 0.
Proof.
  rewrite Z.abs_mul. intros H.
  destruct (Z.eq_dec k 0) as [|Hk]; [assumption|exfalso].
  assert (1 <= Z.abs k) by lia.
  assert (Z.abs d * 1 <= Z.abs d * Z.abs k) by (apply Z.mul_le_mono_nonneg_l; lia).
  lia.
Qed.

(* two decompositions n = d q + r whose remainders differ by less than |d| are the same *)
Lemma div_unique_abs n d q r q' r' :
  n = d * q + r -> n = d * q' + r' -> Z.abs (r' - r) < Z.abs d -> q = q' /\ r = r'.
Proof.
  intros H1 H2 B. replace (r' - r) with (d * (q - q')) in B by lia.
  apply abs_mul_lt_1 in B. lia.
Qed.

Lemma trunc_div_unique n d q r q' r' :
  trunc_div_spec n d q r -> trunc_div_spec n d q' r' -> q = q' /\ r = r'.
Proof. intros (H1&H2&H3) (H4&H5&H6). apply (div_unique_abs n d); [assumption..|lia]. Qed.

Lemma floor_div_unique n d q r q' r' :
  floor_div_spec n d q r -> floor_div_spec n d q' r' -> q = q' /\ r = r'.
Proof. intros (H1&H2) (H4&H5). apply (div_unique_abs n d); [assumption..|lia]. Qed.

Lemma quot_rem_trunc n d : d <> 0 -> trunc_div_spec n d (Z.quot n d) (Z.rem n d).
Proof.
  intros Hd. split; [apply Z.quot_rem'|]. split; [apply Z.rem_bound_abs; assumption|].
  pose proof (Z.rem_sign_nz n d Hd). lia.
Qed.

Lemma tdiv_qr_spec n d :
  d <> 0 -> exists q r, tdiv_qr n d = Ok (q, r) /\ trunc_div_spec n d q r.
Proof.
  intros Hd. unfold tdiv_qr. destruct (d =? 0) eqn:E; [lia|].
  eexists _, _. split; [reflexivity|apply quot_rem_trunc, Hd].
Qed.

Lemma fdiv_qr_spec n d :
  d <> 0 -> exists q r, fdiv_qr n d = Ok (q, r) /\ floor_div_spec n d q r.
Proof.
  intros Hd. unfold fdiv_qr.
  destruct (tdiv_qr_spec n d Hd) as (q & r & -> & (H1 & H2 & H3)).
  cbn [bind]. eexists _, _. split; [reflexivity|]. unfold floor_div_spec.
  destruct (_ && negb (r =? 0)) eqn:Eq, ((0 <? d) && (r <? 0) || (d <? 0) && (0 <? r)) eqn:Er; lia.
Qed.

Lemma cdiv_qr_spec n d :
  d <> 0 -> exists q r, cdiv_qr n d = Ok (q, r) /\ ceil_div_spec n d q r.
Proof.
  intros Hd. unfold cdiv_qr.
  destruct (tdiv_qr_spec n d Hd) as (q & r & -> & (H1 & H2 & H3)).
  cbn [bind]. eexists _, _. split; [reflexivity|]. unfold ceil_div_spec.
  destruct (_ && negb (r =? 0)) eqn:Eq, ((0 <? d) && (0 <? r) || (d <? 0) && (r <? 0)) eqn:Er; lia.
Qed.

Lemma fdiv_qr_div_mod n d : d <> 0 -> fdiv_qr n d = Ok (n / d, n mod d).
Proof.
  intros Hd. destruct (fdiv_qr_spec n d Hd) as (q & r & -> & Hs).
  assert (floor_div_spec n d (n / d) (n mod d)).
  { unfold floor_div_spec. pose proof (Z.div_mod n d Hd).
    pose proof (Z.mod_pos_bound n d). pose proof (Z.mod_neg_bound n d). lia. }
  destruct (floor_div_unique _ _ _ _ _ _ Hs H) as [-> ->]. reflexivity.
Qed.

Lemma fdiv_r_mod n d : d <> 0 -> fdiv_r n d = Ok (n mod d).
Proof. intros. unfold fdiv_r. rewrite fdiv_qr_div_mod by assumption. reflexivity. Qed.

Lemma tdiv_q_quot n d : d <> 0 -> tdiv_q n d = Ok (Z.quot n d).
Proof. intros. unfold tdiv_q, tdiv_qr. destruct (d =? 0) eqn:E; [lia|reflexivity]. Qed.

Lemma tdiv_r_rem n d : d <> 0 -> tdiv_r n d = Ok (Z.rem n d).
Proof. intros. unfold tdiv_r, tdiv_qr. destruct (d =? 0) eqn:E; [lia|reflexivity]. Qed.

(* the six functions of ntheory.cpp *)
Theorem division_correct n d :
  d <> 0 ->
  exists q r q' r',
    nt_quotient_mod n d = Ok (q, r) /\ nt_quotient n d = Ok q /\ nt_mod n d = Ok r /\
    trunc_div_spec n d q r /\
    nt_quotient_mod_f n d = Ok (q', r') /\ nt_quotient_f n d = Ok q' /\ nt_mod_f n d = Ok r' /\
    floor_div_spec n d q' r'.
Proof.
  intros Hd.
  destruct (tdiv_qr_spec n d Hd) as (q & r & E1 & S1).
  destruct (fdiv_qr_spec n d Hd) as (q' & r' & E2 & S2).
  exists q, r, q', r'.
  unfold nt_quotient_mod, nt_quotient, nt_mod, nt_quotient_mod_f, nt_quotient_f, nt_mod_f, nz,
    tdiv_q, tdiv_r, fdiv_q, fdiv_r.
  destruct (d =? 0) eqn:E0; [lia|].
  rewrite E1, E2. cbn [bind]. repeat split; try reflexivity; try apply S1; apply S2.
Qed.

Theorem division_by_zero n :
  nt_quotient_mod n 0 = ErrExn EXN_DIVZERO /\ nt_quotient_mod_f n 0 = ErrExn EXN_DIVZERO /\
  nt_mod n 0 = ErrExn EXN_DIVZERO /\ nt_quotient n 0 = ErrExn EXN_DIVZERO /\
  nt_mod_f n 0 = ErrExn EXN_DIVZERO /\ nt_quotient_f n 0 = ErrExn EXN_DIVZERO.
Proof. repeat split; reflexivity. Qed.

Theorem gcd_lcm_correct a b :
  is_gcd (nt_gcd a b) a b /\ is_lcm (nt_lcm a b) a b /\
  (nt_divides a b = true <-> (b | a)).
Proof.
  unfold is_gcd, is_lcm, nt_gcd, nt_lcm, nt_divides, divisible. repeat split.
  - apply Z.gcd_nonneg.
  - apply Z.gcd_divide_l.
  - apply Z.gcd_divide_r.
  - intros; now apply Z.gcd_greatest.
  - apply Z.lcm_nonneg.
  - apply Z.divide_lcm_l.
  - apply Z.divide_lcm_r.
  - intros; now apply Z.lcm_least.
  - destruct (b =? 0) eqn:E.
    + intros H. assert (a = 0) by lia. assert (b = 0) by lia. subst. apply Z.divide_0_r.
    + intros H. apply Z.rem_divide; lia.
  - intros H. destruct (b =? 0) eqn:E.
    + assert (b = 0) by lia. subst. apply Z.divide_0_l in H. lia.
    + apply Z.rem_divide in H; lia.
Qed.
