(* C32 -- proofs: mp_perfect_power_decomposition terminates within its fuel and returns
   the highest (or, on request, the lowest) exponent for which n is a perfect power. *)
From SE Require Import C32.NtSpec C32.NtProofsRoot.
From Coq Require Import Lia ZifyBool.
Local Open Scope Z_scope.
Local Open Scope res_scope.

(* the bisection: i^p <= n < j^p is kept, the interval halves *)
Lemma ppd_bisect_spec : forall f n p i j,
  1 <= p -> 0 <= i < j -> i ^ p <= n < j ^ p -> j - i <= 2 ^ Z.of_nat f ->
  exists r, ppd_bisect (S f) n p i j = Ok r /\ i <= r /\ r ^ p <= n < (r + 1) ^ p.
Proof.
  induction f as [|f IH]; intros n p i j Hp Hij Hb Hd.
  - change (2 ^ Z.of_nat 0) with 1 in Hd. cbn [ppd_bisect].
    destruct (i + 1 <? j) eqn:E; [lia|]. exists i. assert (j = i + 1) by lia. subst j.
    split; [reflexivity|]. split; [lia|assumption].
  - cbn [ppd_bisect]. destruct (i + 1 <? j) eqn:E.
    + set (m := Z.quot (i + j) 2).
      assert (Hm : i < m < j /\ 2 * m <= i + j <= 2 * m + 1).
      { unfold m. pose proof (Z.quot_rem' (i + j) 2). pose proof (Z.rem_bound_pos (i + j) 2). lia. }
      rewrite Nat2Z.inj_succ, Z.pow_succ_r in Hd by lia.
      destruct (n <? m ^ p) eqn:E2.
      * destruct (IH n p i m Hp ltac:(lia) ltac:(lia) ltac:(lia)) as (r & Er & H1 & H2).
        exists r. split; [exact Er|]. split; assumption.
      * destruct (IH n p m j Hp ltac:(lia) ltac:(lia) ltac:(lia)) as (r & Er & H1 & H2).
        exists r. split; [exact Er|]. split; [lia|assumption].
    + exists i. assert (j = i + 1) by lia. subst j. split; [reflexivity|]. split; [lia|assumption].
Qed.

(* the loop's invariant: [best] is (n, 1), or the last exact root found (only kept when the highest exponent is
   wanted); either way no exponent in [2, p) above snd best makes n a perfect power *)
Definition ppd_best (n p : Z) (lowest : bool) (best : Z * Z) : Prop :=
  fst best ^ snd best = n /\
  (snd best = 1 /\ fst best = n \/ lowest = false /\ 2 <= snd best < p /\ 2 <= fst best) /\
  forall k, 2 <= k < p -> perfect_power n k -> k <= snd best.

Definition ppd_final (n : Z) (lowest : bool) (r : Z * Z) : Prop :=
  fst r ^ snd r = n /\
  ((snd r = 1 /\ fst r = n /\ forall k, 2 <= k -> ~ perfect_power n k) \/
   (2 <= snd r /\ 2 <= fst r /\
    if lowest then forall k, 2 <= k < snd r -> ~ perfect_power n k
    else forall k, 2 <= k -> perfect_power n k -> k <= snd r)).

Lemma no_power_beyond n p k : 2 <= p -> n < 2 ^ p -> p <= k -> ~ perfect_power n k.
Proof.
  intros Hp Hn Hk (c & Hc & Hck).
  pose proof (Z.pow_le_mono_l 2 c k ltac:(lia)).
  pose proof (Z.pow_le_mono_r 2 p k ltac:(lia) Hk). lia.
Qed.

Lemma ppd_best_init n lowest : ppd_best n 2 lowest (n, 1).
Proof.
  unfold ppd_best. cbn [fst snd]. split; [apply Z.pow_1_r|]. split; [left; split; reflexivity|]. intros k Hk. lia.
Qed.

Lemma ppd_best_found n p r : 2 <= p -> 2 <= r -> r ^ p = n -> ppd_best n (p + 1) false (r, p).
Proof.
  intros Hp Hr E. unfold ppd_best. cbn [fst snd]. split; [exact E|]. split; [right; lia|]. intros k Hk _. lia.
Qed.

Lemma ppd_best_skip n p lowest best :
  ppd_best n p lowest best -> ~ perfect_power n p -> ppd_best n (p + 1) lowest best.
Proof.
  intros (Hb1 & Hb2 & Hmax) Hnot. split; [assumption|]. split; [lia|].
  intros k Hk Hpp. destruct (Z.eq_dec k p) as [->|]; [contradiction|apply Hmax; [lia|assumption]].
Qed.

(* the two exits of the loop: the first exact root when the lowest exponent is wanted, and n < 2^p *)
Lemma ppd_final_lowest n p best r :
  ppd_best n p true best -> 2 <= p -> 2 <= r -> r ^ p = n -> ppd_final n true (r, p).
Proof.
  intros (_ & [[Hs _]|[Hl _]] & Hmax) Hp Hr E; [|discriminate]. unfold ppd_final. cbn [fst snd].
  split; [exact E|]. right. split; [lia|]. split; [lia|].
  intros k Hk Hpp. specialize (Hmax k Hk Hpp). lia.
Qed.

Lemma ppd_final_exit n p lowest best :
  2 <= p -> n < 2 ^ p -> ppd_best n p lowest best -> ppd_final n lowest best.
Proof.
  intros Hp Hn2 (Hb1 & Hb2 & Hmax).
  assert (Hall : forall k, 2 <= k -> perfect_power n k -> k <= snd best).
  { intros k Hk Hpp. destruct (Z.lt_ge_cases k p); [apply Hmax; [lia|assumption]|].
    exfalso. apply (no_power_beyond n p k); assumption || lia. }
  split; [assumption|]. destruct Hb2 as [(Hs & Hf)|(Hl & Hs & Hf)]; [left|right].
  - split; [assumption|]. split; [assumption|]. intros k Hk Hpp. specialize (Hall k Hk Hpp). lia.
  - subst lowest. split; [lia|]. split; assumption.
Qed.

Lemma ppd_loop_spec : forall fuel n p lowest best,
  2 <= p -> 2 <= n -> 2 ^ (p - 1) <= n -> n < 2 ^ (p - 1 + Z.of_nat fuel) ->
  ppd_best n p lowest best ->
  exists r, ppd_loop fuel n p lowest best = Ok r /\ ppd_final n lowest r.
Proof.
  induction fuel as [|f IH]; intros n p lowest best Hp Hn Hlo Hhi Hbest.
  - rewrite Z.add_0_r in Hhi. lia.
  - cbn [ppd_loop]. destruct (2 ^ p <=? n) eqn:E1.
    + assert (Hnp : n < n ^ p).
      { rewrite <- (Z.pow_1_r n) at 1. apply Z.pow_lt_mono_r; lia. }
      assert (H4 : 2 ^ 2 <= 2 ^ p) by (apply Z.pow_le_mono_r; lia). change (2 ^ 2) with 4 in H4.
      destruct (ppd_bisect_spec (S (Z.to_nat (Z.log2 n))) n p 2 n ltac:(lia) ltac:(lia) ltac:(lia))
        as (r & Er & Hr2 & Hrb).
      { rewrite Nat2Z.inj_succ, Z2Nat.id by apply Z.log2_nonneg.
        pose proof (Z.log2_spec n ltac:(lia)). lia. }
      rewrite Er. cbn [bind].
      assert (Hfuel : n < 2 ^ (p + 1 - 1 + Z.of_nat f)).
      { replace (p + 1 - 1 + Z.of_nat f) with (p - 1 + Z.of_nat (S f)) by lia. exact Hhi. }
      assert (Hlo' : 2 ^ (p + 1 - 1) <= n) by (replace (p + 1 - 1) with p by lia; lia).
      destruct (Z.eqb_spec (r ^ p) n) as [E2|E2].
      * destruct lowest.
        -- exists (r, p). split; [reflexivity|]. apply (ppd_final_lowest n p best); assumption.
        -- apply IH; try assumption; try lia. apply ppd_best_found; assumption.
      * assert (Hnot : ~ perfect_power n p).
        { intros (c & Hc & Hcp). pose proof (root_unique r c p n ltac:(lia) ltac:(lia) ltac:(lia) Hrb Hcp). subst c. lia. }
        apply IH; try assumption; try lia. apply ppd_best_skip; assumption.
    + exists best. split; [reflexivity|]. apply (ppd_final_exit n p); [assumption|lia|assumption].
Qed.

Theorem perfect_power_decomposition_correct n lowest :
  1 <= n ->
  exists r, nt_perfect_power_decomposition n lowest = Ok r /\ ppd_final n lowest r.
Proof.
  intros Hn. unfold nt_perfect_power_decomposition.
  destruct (Z.eq_dec n 1) as [->|Hn1].
  { exists (1, 1). split; [reflexivity|]. unfold ppd_final. cbn [fst snd]. split; [reflexivity|].
    left. split; [reflexivity|]. split; [reflexivity|].
    intros k Hk. apply (no_power_beyond 1 2 k); lia. }
  apply ppd_loop_spec; try lia.
  - replace (2 - 1 + Z.of_nat (S (S (Z.to_nat (Z.log2 n))))) with (Z.log2 n + 3).
    + pose proof (Z.log2_spec n ltac:(lia)).
      assert (2 ^ Z.succ (Z.log2 n) <= 2 ^ (Z.log2 n + 3)) by (apply Z.pow_le_mono_r; lia). lia.
    + pose proof (Z.log2_nonneg n). lia.
  - apply ppd_best_init.
Qed.
