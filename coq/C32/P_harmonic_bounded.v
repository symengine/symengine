(* C32 obligation: harmonic(n, m) = sum_{i=1..n} 1/i^m as a reduced fraction, for all 0 <= n <= 40, -3 <= m <= 5 (a case of NtBoundedQ.harmonic_correct, which has no bounds) *)
From SE Require Import C32.NtBrute C32.NtBoundedQ.
Local Open Scope Z_scope.
Theorem C32_harmonic_bounded :
  forallb (fun m => forallb (harmonic_check m) (zrange 0 40)) (zrange (-3) 5) = true.
Proof. exact harmonic_bounded. Qed.
Print Assumptions C32_harmonic_bounded.
