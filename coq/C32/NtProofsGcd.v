(* C32 -- proofs: extended gcd (Euclid's algorithm of mp_boost.cpp) and modular inverse. *)
From SE Require Import C32.NtSpec C32.NtProofsDiv.
From Coq Require Import Lia ZifyBool.
Local Open Scope Z_scope.
Local Open Scope res_scope.

Section Euclid.
Variables a b : Z.

Definition euclid_inv (ts tt ns nt tr nr : Z) : Prop :=
  ts * a + tt * b = tr /\ ns * a + nt * b = nr /\ Z.gcd tr nr = Z.gcd a b.

Lemma euclid_step ts tt ns nt tr nr :
  nr <> 0 -> euclid_inv ts tt ns nt tr nr ->
  euclid_inv ns nt (ts - Z.quot tr nr * ns) (tt - Z.quot tr nr * nt) nr (Z.rem tr nr).
Proof.
  intros Hnr (H1 & H2 & H3). pose proof (Z.quot_rem' tr nr) as Hq.
  set (q := Z.quot tr nr) in *. set (r := Z.rem tr nr) in *.
  unfold euclid_inv. split; [exact H2|]. split.
  - replace ((ts - q * ns) * a + (tt - q * nt) * b)
      with ((ts * a + tt * b) - q * (ns * a + nt * b)) by ring.
    rewrite H1, H2. lia.
  - rewrite <- H3. replace r with (tr + (- q) * nr) by lia.
    rewrite Z.gcd_add_mult_diag_r. apply Z.gcd_comm.
Qed.

Lemma gcdext_loop_step fuel ts tt ns nt tr nr :
  nr <> 0 ->
  gcdext_loop (S fuel) ts tt ns nt tr nr =
  gcdext_loop fuel ns nt (ts - Z.quot tr nr * ns) (tt - Z.quot tr nr * nt) nr (Z.rem tr nr).
Proof. intros H. apply Z.eqb_neq in H. cbn [gcdext_loop]. rewrite H. reflexivity. Qed.

Lemma gcdext_loop_exit fuel ts tt ns nt tr :
  euclid_inv ts tt ns nt tr 0 ->
  exists g s t, gcdext_loop (S fuel) ts tt ns nt tr 0 = Ok (g, s, t) /\
                s * a + t * b = g /\ Z.abs g = Z.gcd a b.
Proof.
  intros (H1 & _ & H3). exists tr, ts, tt. split; [reflexivity|]. split; [exact H1|].
  rewrite <- H3. symmetry. apply Z.gcd_0_r.
Qed.

(* two rounds at least halve the remainder *)
Lemma rem_halves tr nr :
  nr <> 0 -> Z.rem tr nr <> 0 -> 2 * Z.abs (Z.rem nr (Z.rem tr nr)) < Z.abs nr.
Proof.
  intros Hnr Hr1. set (r1 := Z.rem tr nr) in *.
  pose proof (Z.rem_bound_abs tr nr Hnr) as B1. fold r1 in B1.
  destruct (quot_rem_trunc nr r1 Hr1) as (S1 & S2 & S3).
  set (q2 := Z.quot nr r1) in *. set (r2 := Z.rem nr r1) in *.
  assert (Hq : q2 <> 0) by (intros Hq; rewrite Hq in S1; lia).
  assert (M : Z.abs r1 <= Z.abs (r1 * q2)).
  { rewrite Z.abs_mul. assert (1 <= Z.abs q2) by lia.
    replace (Z.abs r1) with (Z.abs r1 * 1) at 1 by ring.
    apply Z.mul_le_mono_nonneg_l; lia. }
  lia.
Qed.

Lemma gcdext_loop_ok :
  forall (k : nat) (fuel : nat) ts tt ns nt tr nr,
    Z.abs nr < 2 ^ Z.of_nat k -> (2 * k + 1 <= fuel)%nat ->
    euclid_inv ts tt ns nt tr nr ->
    exists g s t, gcdext_loop fuel ts tt ns nt tr nr = Ok (g, s, t) /\
                  s * a + t * b = g /\ Z.abs g = Z.gcd a b.
Proof.
  induction k as [|k IH]; intros fuel ts tt ns nt tr nr Hb Hf Hinv.
  - assert (nr = 0) by (change (2 ^ Z.of_nat 0) with 1 in Hb; lia). subst nr.
    destruct fuel as [|f]; [lia|]. apply gcdext_loop_exit, Hinv.
  - destruct fuel as [|[|f]]; try lia.
    destruct (Z.eq_dec nr 0) as [->|Hnr]; [apply gcdext_loop_exit, Hinv|].
    pose proof (euclid_step _ _ _ _ _ _ Hnr Hinv) as Hinv1.
    rewrite gcdext_loop_step by assumption.
    destruct (Z.eq_dec (Z.rem tr nr) 0) as [E1|Hr1]; [rewrite E1 in *; apply gcdext_loop_exit, Hinv1|].
    rewrite gcdext_loop_step by assumption.
    apply IH; [|lia|exact (euclid_step _ _ _ _ _ _ Hr1 Hinv1)].
    pose proof (rem_halves tr nr Hnr Hr1) as Hh.
    rewrite Nat2Z.inj_succ, Z.pow_succ_r in Hb by lia. lia.
Qed.

Lemma abs_lt_pow_log2 x : Z.abs x < 2 ^ (Z.log2 (Z.abs x) + 1).
Proof.
  destruct (Z.eq_dec x 0) as [->|Hx]; [cbn; lia|].
  pose proof (Z.log2_spec (Z.abs x)). rewrite Z.add_1_r. lia.
Qed.

Lemma gcdext_euclid_ok :
  exists g s t, gcdext_euclid a b = Ok (g, s, t) /\ s * a + t * b = g /\ g = Z.gcd a b.
Proof.
  unfold gcdext_euclid.
  set (ts0 := if (a =? 0) && (b =? 0) then 0 else 1).
  destruct (gcdext_loop_ok (Z.to_nat (Z.log2 (Z.abs b) + 1)) (gcdext_fuel b) ts0 0 0 1 a b)
    as (g & s & t & E & Hbz & Hg).
  - rewrite Z2Nat.id by (pose proof (Z.log2_nonneg (Z.abs b)); lia). apply abs_lt_pow_log2.
  - unfold gcdext_fuel. lia.
  - unfold euclid_inv, ts0. destruct ((a =? 0) && (b =? 0)) eqn:E0; repeat split; lia.
  - rewrite E. cbn [bind]. pose proof (Z.gcd_nonneg a b).
    destruct (g <? 0) eqn:En.
    + exists (- g), (- s), (- t). split; [reflexivity|]. split; lia.
    + exists g, s, t. split; [reflexivity|]. split; lia.
Qed.

End Euclid.

Lemma gcdext_gcd c a b :
  exists s t, gcdext c a b = Ok (Z.gcd a b, s, t) /\ s * a + t * b = Z.gcd a b.
Proof.
  destruct (gcdext_euclid_ok a b) as (g & s & t & E1 & E2 & ->). exists s, t. split; assumption.
Qed.

Theorem gcd_ext_correct c a b :
  exists g s t, nt_gcd_ext c a b = Ok (g, s, t) /\ s * a + t * b = g /\ is_gcd g a b.
Proof.
  destruct (gcdext_gcd c a b) as (s & t & E1 & E2).
  exists (Z.gcd a b), s, t. split; [exact E1|]. split; [exact E2|].
  exact (proj1 (gcd_lcm_correct a b)).
Qed.

Theorem mod_inverse_correct c a m :
  m <> 0 ->
  (Z.gcd a m = 1 -> exists x, nt_mod_inverse c a m = Ok (true, x) /\ is_inverse x a m) /\
  (Z.gcd a m <> 1 -> nt_mod_inverse c a m = Ok (false, 0) /\ forall x, ~ cong m (a * x) 1).
Proof.
  intros Hm. unfold nt_mod_inverse, invert.
  destruct (gcdext_gcd c a m) as (s & t & E & Hb). rewrite E. cbn [bind]. split.
  - intros Hg. rewrite Hg. cbn [negb Z.eqb Pos.eqb].
    rewrite fdiv_r_mod by assumption. cbn [bind].
    eexists. split; [reflexivity|]. unfold is_inverse, cong.
    pose proof (Z.div_mod s m Hm) as Hdm.
    pose proof (Z.mod_pos_bound s m). pose proof (Z.mod_neg_bound s m).
    set (s1 := s mod m) in *.
    destruct (s1 <? 0) eqn:Es; split; try lia.
    + (* a * (s1 + |m|) - 1 = m * (...) *)
      exists (- (a * (s / m)) - t - a). rewrite Hg in Hb.
      replace (Z.abs m) with (- m) by lia. nia.
    + exists (- (a * (s / m)) - t). rewrite Hg in Hb. nia.
  - intros Hg. destruct (Z.gcd a m =? 1) eqn:E1; [lia|]. cbn [negb]. split; [reflexivity|].
    intros x (k & Hk). apply Hg.
    apply Z.gcd_unique; [lia| apply Z.divide_1_l | apply Z.divide_1_l|].
    intros q Ha Hmq. destruct Ha as (u & Hu). destruct Hmq as (v & Hv).
    exists (u * x - k * v). nia.
Qed.
