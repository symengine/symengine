(* C32 -- theorems over explicit finite ranges for the functions whose general correctness needs
   number theory not developed here (cyclic unit groups, quadratic reciprocity): the faithful
   model is compared with the definitions by exhaustive search, inside the kernel.  The kernel is
   slow at this, so a sweep is stated over n > 0 where the check does not see the sign of n, and
   with a search that the definition repeats for every element done once (NtBruteFacts.v). *)
From SE Require Import C32.NtBrute C32.NtBruteFacts C32.NtProofsPowm C32.NtProofsQR.
From Coq Require Import Lia.
Local Open Scope Z_scope.

Definition nonzero_range (b : Z) : list Z := zrange (- b) (-1) ++ zrange 1 b.
Definition both (f : cfg -> bool) : bool := f GMP && f BOOST.

Lemma in_nonzero_range n b : In n (nonzero_range b) <-> n <> 0 /\ - b <= n <= b.
Proof. unfold nonzero_range. rewrite in_app_iff, !in_zrange. lia. Qed.

Lemma forallb_nonzero_range f b :
  (forall n, 0 < n -> f n = true -> f (- n) = true) ->
  forallb f (zrange 1 b) = true -> forallb f (nonzero_range b) = true.
Proof. intros Hf. apply forallb_abs; [assumption|]. intros n. rewrite in_nonzero_range, in_zrange. lia. Qed.

(* totient(n) is the number of residues coprime to n *)
Definition totient_check (n : Z) : bool := res_is Z.eqb (nt_totient n) (totient_brute (Z.abs n)).
(* model and check look at n through Z.abs n and n =? 0 only: both sides compute to the same *)
Lemma totient_check_opp n : totient_check (- n) = totient_check n.
Proof. now destruct n. Qed.
Lemma totient_bounded : forallb totient_check (nonzero_range 400) = true.
Proof.
  apply forallb_nonzero_range; [intros n _; now rewrite totient_check_opp|]. vm_compute. reflexivity.
Qed.

(* carmichael(n) is the exponent of the unit group *)
Definition carmichael_check (n : Z) : bool :=
  match carmichael_brute (Z.abs n) with Some e => res_is Z.eqb (nt_carmichael n) e | None => false end.
Lemma carmichael_check_opp n : carmichael_check (- n) = carmichael_check n.
Proof. now destruct n. Qed.
Lemma carmichael_bounded : forallb carmichael_check (nonzero_range 64) = true.
Proof.
  apply forallb_nonzero_range; [intros n _; now rewrite carmichael_check_opp|]. vm_compute. reflexivity.
Qed.

(* multiplicative_order(a, n): the least k > 0 with a^k = 1 (mod |n|) when gcd(a, n) = 1, else none *)
Definition order_check (n a : Z) : bool :=
  let n1 := Z.abs n in
  let expected := if Z.gcd a n1 =? 1 then order_brute a n1 else None in
  both (fun c => res_is opt_eqb (nt_multiplicative_order c a n) expected).
Lemma order_check_opp n a : order_check (- n) a = order_check n a.
Proof. now destruct n. Qed.
Lemma multiplicative_order_bounded :
  forallb (fun n => forallb (order_check n) (zrange (-30) 30)) (nonzero_range 60) = true.
Proof.
  apply forallb_nonzero_range.
  { intros n _. apply forallb_impl_in. intros a _. now rewrite order_check_opp. }
  assert (H : forallb (fun n => forallb (fun a =>
                res_is opt_eqb (nt_multiplicative_order GMP a n)
                       (if Z.gcd a n =? 1 then order_from (Z.to_nat n) 1 (a mod n) a n else None))
              (zrange (-30) 30)) (zrange 1 60) = true) by (vm_compute; reflexivity).
  revert H. apply forallb_impl_in. intros n Hn. apply forallb_impl_in. intros a _ H.
  apply in_zrange in Hn. unfold order_check, both.
  rewrite (nt_multiplicative_order_cfg BOOST), order_brute_from, Z.abs_eq, H by lia. reflexivity.
Qed.

(* primitive_root(n): a generator of the unit group when one exists, none otherwise *)
Definition primitive_root_check (n : Z) : bool :=
  let n1 := Z.abs n in
  match nt_primitive_root n with
  | Ok (Some g) => (0 <? g) && (g <? n1) && is_primitive_root_brute g n1
  | Ok None => (n1 <=? 1) || negb (existsb (fun g => is_primitive_root_brute g n1) (zrange 1 (n1 - 1)))
  | _ => false
  end.

(* The same with the searches cut short.  Some g: the order of g with g^k mod n carried along.
   None: every unit x already has x^(phi/2) = 1, so none has order phi. *)
Definition primitive_root_fast (n : Z) : bool :=
  let n1 := Z.abs n in
  let phi := totient_brute n1 in
  match nt_primitive_root n with
  | Ok (Some g) =>
      (0 <? g) && (g <? n1) && (Z.gcd g n1 =? 1) &&
      opt_eqb (order_from (Z.to_nat n1) 1 (g mod n1) g n1) (Some phi)
  | Ok None => (n1 <=? 1) || ((1 <? phi) && (phi <=? n1) && units_exponent n1 (phi / 2))
  | _ => false
  end.

Lemma primitive_root_fast_check n : primitive_root_fast n = true -> primitive_root_check n = true.
Proof.
  unfold primitive_root_fast, primitive_root_check. cbv zeta.
  destruct (nt_primitive_root n) as [[g|]| | |]; trivial; intros H.
  - apply andb_prop in H as [H Ho]. apply andb_prop in H as [H Hc]. rewrite H. cbn [andb].
    apply andb_prop in H as [H1 H2]. apply Z.ltb_lt in H1, H2.
    unfold is_primitive_root_brute. rewrite Hc, order_brute_from by lia. exact Ho.
  - apply Bool.orb_prop in H as [H|H]; [now rewrite H|].
    apply andb_prop in H as [H Hu]. apply andb_prop in H as [H1 H2]. apply Z.ltb_lt in H1. apply Z.leb_le in H2.
    pose proof (Z.div_lt (totient_brute (Z.abs n)) 2).
    rewrite (no_generator _ (totient_brute (Z.abs n) / 2)); [apply Bool.orb_true_r| |lia|assumption].
    split; [apply Z.div_str_pos|]; lia.
Qed.

Lemma primitive_root_check_opp n : primitive_root_check (- n) = primitive_root_check n.
Proof. now destruct n. Qed.
Lemma primitive_root_bounded : forallb primitive_root_check (zrange (-150) 150) = true.
Proof.
  apply (forallb_zrange_sym _ 150); [intros n _; now rewrite primitive_root_check_opp|].
  assert (H : forallb primitive_root_fast (zrange 0 150) = true) by (vm_compute; reflexivity).
  revert H. apply forallb_impl_in. intros n _. apply primitive_root_fast_check.
Qed.

(* kronecker, jacobi (odd positive n), legendre (odd primes) against the definition of the symbols *)
Definition kronecker_check (n a : Z) : bool :=
  both (fun c => res_is Z.eqb (nt_kronecker c a n) (kronecker_brute a n)) &&
  (negb ((0 <? n) && Z.odd n) || both (fun c => res_is Z.eqb (nt_jacobi c a n) (kronecker_brute a n))) &&
  (negb ((2 <? n) && is_prime n) || both (fun c => res_is Z.eqb (nt_legendre c a n) (legendre_brute a n))).
Lemma kronecker_check_opp_pos n a : 0 < n -> kronecker_check n a = true -> kronecker_check (- n) a = true.
Proof.
  intros Hn H. unfold kronecker_check, both in *.
  apply andb_prop in H as [H _]. apply andb_prop in H as [H _]. apply andb_prop in H as [H1 H2].
  replace (0 <? - n) with false by lia. replace (2 <? - n) with false by lia.
  cbn [andb negb orb]. rewrite !Bool.andb_true_r. unfold nt_kronecker in *.
  rewrite !mp_kronecker_opp_pos, kronecker_brute_opp_pos by assumption.
  destruct (mp_kronecker GMP a n) as [x| | |]; try discriminate.
  destruct (mp_kronecker BOOST a n) as [y| | |]; try discriminate.
  apply Z.eqb_eq in H1, H2. subst. cbn [bind res_is]. now rewrite !Z.eqb_refl.
Qed.

Lemma kronecker_bounded :
  forallb (fun n => forallb (kronecker_check n) (zrange (-40) 40)) (zrange (-40) 40) = true.
Proof.
  apply (forallb_zrange_sym _ 40).
  { intros n Hn. apply forallb_impl_in. intros a _. now apply kronecker_check_opp_pos. }
  (* [kronecker_check n a] with the symbol by definition evaluated once, not once per comparison *)
  assert (H : forallb (fun n => forallb (fun a =>
                let kb := kronecker_brute a n in
                both (fun c => res_is Z.eqb (nt_kronecker c a n) kb) &&
                (negb ((0 <? n) && Z.odd n) || both (fun c => res_is Z.eqb (nt_jacobi c a n) kb)) &&
                (negb ((2 <? n) && is_prime n) ||
                 (let lb := legendre_brute a n in both (fun c => res_is Z.eqb (nt_legendre c a n) lb))))
              (zrange (-40) 40)) (zrange 0 40) = true) by (vm_compute; reflexivity).
  exact H.
Qed.

(* is_quad_residue(a, p): a is a square modulo |p| (boost configuration: positive p, see the defect) *)
Definition quad_residue_check (p a : Z) : bool :=
  res_is Bool.eqb (nt_is_quad_residue GMP a p) (has_root_brute a 2 (Z.abs p)) &&
  ((p <? 0) || res_is Bool.eqb (nt_is_quad_residue BOOST a p) (has_root_brute a 2 p)).
Lemma is_quad_residue_bounded :
  forallb (fun p => forallb (quad_residue_check p) (zrange (-40) 40)) (nonzero_range 60) = true.
Proof.
  apply forallb_nonzero_range.
  { intros p Hp. apply forallb_impl_in. intros a _ H. unfold quad_residue_check in *.
    apply andb_prop in H as [H _]. rewrite nt_is_quad_residue_gmp_opp, Z.abs_opp, H.
    now destruct p. }
  (* a enters model and definition through a mod p *)
  assert (H : forallb (fun p =>
                let rs := power_residues 2 p in
                forallb (fun a =>
                           let r := existsb (Z.eqb a) rs in
                           res_is Bool.eqb (nt_is_quad_residue GMP a p) r &&
                           res_is Bool.eqb (nt_is_quad_residue BOOST a p) r)
                        (zrange 0 (p - 1))) (zrange 1 60) = true) by (vm_compute; reflexivity).
  rewrite forallb_forall in *. intros p Hp. specialize (H p Hp). apply in_zrange in Hp.
  rewrite forallb_forall in *. intros a _.
  specialize (H (a mod p)). rewrite in_zrange in H. pose proof (Z.mod_pos_bound a p).
  apply andb_prop in H as [H1 H2]; [|lia].
  unfold quad_residue_check. rewrite !has_root_brute_residues.
  rewrite (nt_is_quad_residue_mod GMP), (nt_is_quad_residue_mod BOOST), Z.abs_eq, H1, H2 by lia.
  apply Bool.orb_true_r.
Qed.

(* is_nth_residue(a, k, m) for a >= 0 (negative a: see the defect) *)
Definition nth_residue_check (m k a : Z) : bool :=
  res_is Bool.eqb (nt_is_nth_residue a k m) (has_root_brute a k (Z.abs m)).
Lemma nth_residue_check_opp m k a : nth_residue_check (- m) k a = nth_residue_check m k a.
Proof. destruct m as [|[p|p|]|[p|p|]]; reflexivity. Qed.
Lemma is_nth_residue_bounded :
  forallb (fun m => forallb (fun k => forallb (nth_residue_check m k) (zrange 0 50)) (zrange 1 6))
          (nonzero_range 40) = true.
Proof.
  apply forallb_nonzero_range.
  { intros m _. apply forallb_impl_in. intros k _. apply forallb_impl_in. intros a _.
    now rewrite nth_residue_check_opp. }
  assert (H : forallb (fun m =>
                match nt_prime_factor_multiplicities m with
                | Ok pm =>
                    forallb (fun k =>
                      let rs := power_residues k m in
                      forallb (fun a => res_is Bool.eqb (all_prime_powers pm a k) (existsb (Z.eqb (a mod m)) rs))
                              (zrange 0 50)) (zrange 1 6)
                | _ => false
                end) (zrange 1 40) = true) by (vm_compute; reflexivity).
  revert H. apply forallb_impl_in. intros m Hm. apply in_zrange in Hm.
  destruct (nt_prime_factor_multiplicities m) as [pm| | |] eqn:E; try discriminate.
  apply forallb_impl_in. intros k _. apply forallb_impl_in. intros a _. unfold nth_residue_check.
  rewrite has_root_brute_residues, Z.abs_eq, (nt_is_nth_residue_factored a k m pm) by (assumption || lia).
  trivial.
Qed.

(* factor_lehman_method is sound: a reported factor is a proper divisor *)
Definition lehman_check (n : Z) : bool :=
  match nt_factor_lehman n with
  | Ok (Some f) => (1 <? f) && (f <? n) && (n mod f =? 0)
  | Ok None => true
  | _ => false
  end.
Lemma lehman_sound_bounded : forallb lehman_check (zrange 21 2000) = true.
Proof. vm_compute. reflexivity. Qed.
