(* C32 obligation: mobius(a) is 0 when a prime square divides a and (-1)^(number of prime factors) otherwise *)
From SE Require Import C32.NtSpec C32.NtProofsTotient.
Local Open Scope Z_scope.
Theorem C32_mobius :
  forall a : Z, 1 <= a <= LONG_MAX ->
  exists l, is_factorisation a l /\ nt_mobius a = Ok (mobius_of l) /\
    (Exists (fun pe : Z * Z => 1 < snd pe) l -> mobius_of l = 0) /\
    (Forall (fun pe : Z * Z => snd pe <= 1) l -> mobius_of l = (-1) ^ Z.of_nat (length l)).
Proof.
  intros a H. destruct (mobius_correct a H) as (l & H1 & H2).
  exists l. split; [exact H1|]. split; [exact H2|apply mobius_of_spec].
Qed.
Print Assumptions C32_mobius.
