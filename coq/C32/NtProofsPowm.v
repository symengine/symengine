(* C32 -- proofs: modular powers (square-and-multiply), powermod, and the agreement of the two
   configurations on mp_powm and multiplicative_order. *)
From SE Require Import C32.NtSpec C32.NtProofsDiv C32.NtProofsGcd.
From Coq Require Import Lia ZifyBool.
Local Open Scope Z_scope.
Local Open Scope res_scope.

Lemma powm_pos_correct a e m : 0 < m -> powm_pos a e m = (a ^ Zpos e) mod m.
Proof.
  intros Hm. induction e as [e IH|e IH|]; cbn [powm_pos].
  - rewrite IH. rewrite Pos2Z.inj_xI.
    rewrite Z.pow_add_r, Z.pow_1_r, Z.pow_twice_r by lia.
    rewrite <- Z.mul_mod by lia.
    rewrite Z.mul_mod_idemp_l by lia. reflexivity.
  - rewrite IH. rewrite Pos2Z.inj_xO, Z.pow_twice_r.
    rewrite <- Z.mul_mod by lia. reflexivity.
  - rewrite Z.pow_1_r. reflexivity.
Qed.

Lemma powm_nn_correct a e m : 0 <= e -> m <> 0 -> powm_nn a e m = (a ^ e) mod (Z.abs m).
Proof.
  intros He Hm. unfold powm_nn. destruct e as [|p|p]; [reflexivity| |lia].
  apply powm_pos_correct. lia.
Qed.

Lemma powm_nn_range a e m : m <> 0 -> 0 <= powm_nn a e m < Z.abs m.
Proof.
  intros Hm. destruct e as [|p|p]; cbn [powm_nn]; [| rewrite powm_pos_correct by lia |lia].
  all: apply Z.mod_pos_bound; lia.
Qed.

(* boost's powm returns a remainder with the sign of a; mp_boost.cpp adds |m| back, so the two
   configurations agree on every input *)
Lemma mp_powm_cfg c a e m : mp_powm c a e m = mp_powm GMP a e m.
Proof.
  unfold mp_powm. destruct (m =? 0) eqn:E0; [reflexivity|]. destruct c; [reflexivity|].
  pose proof (powm_nn_range a e m ltac:(lia)) as R. unfold tpowm. set (r := powm_nn a e m) in *.
  destruct ((a <? 0) && Z.odd e && negb (r =? 0)).
  - destruct (r - Z.abs m <? 0) eqn:E1; f_equal; lia.
  - destruct (r <? 0) eqn:E1; f_equal; lia.
Qed.

(* mp_powm has the documented meaning of mpz_powm in both configurations *)
Lemma mp_powm_correct c a e m :
  0 <= e -> m <> 0 -> mp_powm c a e m = Ok ((a ^ e) mod (Z.abs m)).
Proof.
  intros He Hm. rewrite mp_powm_cfg. unfold mp_powm. destruct (m =? 0) eqn:E0; [lia|].
  now rewrite powm_nn_correct.
Qed.

(* multiplicative_order reaches the configuration through mp_powm only *)
Lemma order_loop_cfg c pm a n : forall order, order_loop c pm a n order = order_loop GMP pm a n order.
Proof.
  induction pm as [|[p e] pm IH]; intros order; cbn [order_loop]; [reflexivity|].
  rewrite mp_powm_cfg. destruct (mp_powm GMP a (Z.quot order (p ^ e)) n) as [t| | |]; cbn [bind]; trivial.
  destruct (order_raise _ t p n _); cbn [bind]; trivial.
Qed.

Lemma nt_multiplicative_order_cfg c a n : nt_multiplicative_order c a n = nt_multiplicative_order GMP a n.
Proof.
  unfold nt_multiplicative_order. destruct (negb _); [reflexivity|].
  destruct (nt_carmichael n) as [l| | |]; cbn [bind]; trivial.
  destruct (nt_prime_factor_multiplicities l); cbn [bind]; trivial.
  destruct (tdiv_r a (Z.abs n)); cbn [bind]; trivial. now rewrite order_loop_cfg.
Qed.

Theorem powermod_correct c a b m :
  m <> 0 ->
  (0 <= b -> nt_powermod c a b m = Ok (Some ((a ^ b) mod (Z.abs m)))) /\
  (b < 0 ->
   let p := (a ^ (- b)) mod (Z.abs m) in
   (Z.gcd p m = 1 -> exists x, nt_powermod c a b m = Ok (Some x) /\ is_inverse x p m) /\
   (Z.gcd p m <> 1 -> nt_powermod c a b m = Ok None)).
Proof.
  intros Hm. unfold nt_powermod. split.
  - intros Hb. destruct (b <? 0) eqn:E; [lia|].
    rewrite mp_powm_correct by assumption. reflexivity.
  - intros Hb. cbv zeta. set (p := (a ^ (- b)) mod Z.abs m).
    destruct (b <? 0) eqn:E; [|lia].
    rewrite mp_powm_correct by (assumption || lia). cbn [bind]. fold p.
    destruct (mod_inverse_correct c p m Hm) as [H1 H2]. unfold nt_mod_inverse in *. split.
    + intros Hg. destruct (H1 Hg) as (x & Ex & Hx). rewrite Ex. cbn [bind]. eauto.
    + intros Hg. destruct (H2 Hg) as (Ex & _). rewrite Ex. reflexivity.
Qed.

Theorem powermod_list_correct c a b m :
  nt_powermod_list c a b m =
  match nt_powermod c a b m with
  | Ok (Some x) => Ok [x] | Ok None => Ok []
  | ErrOOB i l => ErrOOB i l | ErrFuel => ErrFuel | ErrExn e => ErrExn e
  end.
Proof. unfold nt_powermod_list. destruct (nt_powermod c a b m) as [[x|]| | |]; reflexivity. Qed.
