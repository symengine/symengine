(* C32 -- proofs: totient (Euler's product), Moebius function, the mertens loop and
   factor_trial_division, all on top of the verified factorisation. *)
From SE Require Import C32.NtSpec C32.NtProofsFactor.
From Coq Require Import Lia ZifyBool.
Local Open Scope Z_scope.
Local Open Scope res_scope.

Lemma totient_fold : forall (l : list (Z * Z)) (c : Z),
  Forall (fun pe => prime (fst pe) /\ 1 <= snd pe) l ->
  fold_left (fun phi pe => Z.quot phi (fst pe) * (fst pe - 1)) l (c * prod_pe l)
  = c * euler_product l.
Proof.
  induction l as [|[p e] l IH]; intros c H; unfold prod_pe, euler_product in *; cbn [fold_left fold_right fst snd].
  - reflexivity.
  - pose proof (Forall_inv H) as (Hp & He). cbn in Hp, He. pose proof (prime_ge_2 _ Hp).
    set (P := fold_right (fun pe acc => fst pe ^ snd pe * acc) 1 l) in *.
    replace (c * (p ^ e * P)) with ((c * p ^ (e - 1) * P) * p).
    + rewrite Z.quot_mul by lia.
      replace (c * p ^ (e - 1) * P * (p - 1)) with ((c * p ^ (e - 1) * (p - 1)) * P) by ring.
      rewrite IH by (eapply Forall_inv_tail; eassumption). ring.
    + replace e with ((e - 1) + 1) at 2 by lia. rewrite Z.pow_add_r, Z.pow_1_r by lia. ring.
Qed.

(* totient n is Euler's product over the prime factorisation of n *)
Theorem totient_correct n :
  n <> 0 -> Z.sqrt (Z.abs n) <= UINT_MAX ->
  exists l, is_factorisation n l /\ nt_totient n = Ok (euler_product l).
Proof.
  intros Hn Hb. destruct (factorisation_correct n Hn Hb) as (l & E & Hf).
  exists l. split; [assumption|]. unfold nt_totient.
  destruct (n =? 0) eqn:E0; [lia|]. rewrite E. cbn [bind]. f_equal.
  destruct Hf as (H1 & H2 & H3). rewrite <- H3.
  replace (prod_pe l) with (1 * prod_pe l) by ring.
  rewrite totient_fold by assumption. ring.
Qed.

Theorem mobius_correct a :
  1 <= a <= LONG_MAX ->
  exists l, is_factorisation a l /\ nt_mobius a = Ok (mobius_of l).
Proof.
  intros Ha.
  assert (Hb : Z.sqrt (Z.abs a) <= UINT_MAX).
  { rewrite Z.abs_eq by lia. unfold UINT_MAX, LONG_MAX in *.
    assert (Z.sqrt a < 4294967296) by (apply Z.sqrt_lt_square; lia). lia. }
  destruct (factorisation_correct a ltac:(lia) Hb) as (l & E & Hf).
  exists l. split; [assumption|]. unfold nt_mobius.
  destruct (LONG_MAX <? a) eqn:E1; [lia|]. destruct (a <=? 0) eqn:E2; [lia|].
  rewrite E. cbn [bind]. unfold mobius_of.
  destruct (existsb (fun pe : Z * Z => 1 <? snd pe) l); reflexivity.
Qed.

Theorem mobius_domain a : a <= 0 \/ LONG_MAX < a -> nt_mobius a = ErrExn EXN_SYMENGINE.
Proof.
  intros H. unfold nt_mobius. destruct (LONG_MAX <? a) eqn:E1; [reflexivity|].
  destruct (a <=? 0) eqn:E2; [reflexivity|lia].
Qed.

(* mobius_of is the textbook function of a factorisation *)
Lemma mobius_of_spec l :
  (Exists (fun pe : Z * Z => 1 < snd pe) l -> mobius_of l = 0) /\
  (Forall (fun pe : Z * Z => snd pe <= 1) l -> mobius_of l = (-1) ^ Z.of_nat (length l)).
Proof.
  unfold mobius_of. split.
  - intros H. apply Exists_exists in H. destruct H as (pe & Hin & Hpe).
    assert (existsb (fun pe : Z * Z => 1 <? snd pe) l = true).
    { apply existsb_exists. exists pe. split; [assumption|lia]. }
    rewrite H. reflexivity.
  - intros H. assert (E : existsb (fun pe : Z * Z => 1 <? snd pe) l = false).
    { destruct (existsb _ l) eqn:E; [|reflexivity]. apply existsb_exists in E.
      destruct E as (pe & Hin & Hpe). rewrite Forall_forall in H. specialize (H pe Hin). lia. }
    rewrite E. clear. induction l as [|x l IH]; [reflexivity|].
    cbn [length]. rewrite Nat2Z.inj_succ, Z.pow_succ_r by lia.
    rewrite Nat.even_succ. rewrite <- Nat.negb_even.
    destruct (Nat.even (length l)); cbn [negb] in *; lia.
Qed.

Lemma mertens_loop_spec : forall cnt i acc,
  1 <= i -> i + Z.of_nat cnt <= LONG_MAX + 1 ->
  exists s, mertens_loop cnt i acc = Ok (acc + s) /\
            forall f, (forall k, i <= k < i + Z.of_nat cnt -> nt_mobius k = Ok (f k)) ->
                      s = fold_right Z.add 0 (map f (map (fun j => i + Z.of_nat j) (seq 0 cnt))).
Proof.
  induction cnt as [|c IH]; intros i acc Hi Hb.
  - exists 0. split; [cbn; f_equal; lia|]. intros; reflexivity.
  - cbn [mertens_loop].
    destruct (mobius_correct i ltac:(lia)) as (l & Hl & E). rewrite E. cbn [bind].
    destruct (IH (i + 1) (acc + mobius_of l) ltac:(lia) ltac:(lia)) as (s & Es & Hs).
    exists (mobius_of l + s). split; [rewrite Es; f_equal; lia|].
    intros f Hf. cbn [seq map fold_right]. rewrite Z.add_0_r.
    assert (Hfi : f i = mobius_of l).
    { specialize (Hf i ltac:(lia)). rewrite E in Hf. congruence. }
    rewrite Hfi. f_equal. rewrite (Hs f).
    + f_equal. f_equal. rewrite <- seq_shift, map_map. apply map_ext. intros; lia.
    + intros k Hk. apply Hf. lia.
Qed.

Lemma ftd_loop_spec n limit : forall cnt p,
  2 <= p -> (forall d, 2 <= d < p -> ~ (d | n)) -> limit + 2 <= p + Z.of_nat cnt ->
  match ftd_loop cnt p limit n with
  | Some f => prime f /\ (f | n) /\ p <= f <= limit /\ forall d, 2 <= d < f -> ~ (d | n)
  | None => forall d, 2 <= d <= limit -> ~ (d | n)
  end.
Proof.
  induction cnt as [|c IH]; intros p Hp Hno Hc; cbn [ftd_loop].
  - intros d Hd. apply Hno. lia.
  - destruct (limit <? p) eqn:E1.
    { intros d Hd. apply Hno. lia. }
    destruct (is_prime p && (Z.rem n p =? 0)) eqn:E2.
    + apply andb_prop in E2. destruct E2 as [E2 E3]. apply is_prime_true in E2.
      split; [assumption|]. split; [apply Z.rem_divide; lia|]. split; [lia|assumption].
    + assert (Hno' : forall d, 2 <= d < p + 1 -> ~ (d | n)).
      { intros d Hd. destruct (Z.eq_dec d p) as [->|]; [|apply Hno; lia].
        apply andb_false_iff in E2. destruct E2 as [E2|E2].
        * apply composite_not_least_divisor; assumption.
        * intros Hd'. apply Z.rem_divide in Hd'; lia. }
      specialize (IH (p + 1) ltac:(lia) Hno' ltac:(lia)).
      destruct (ftd_loop c (p + 1) limit n) as [f|]; [|exact IH].
      destruct IH as (I1 & I2 & I3 & I4). split; [assumption|]. split; [assumption|]. split; [lia|assumption].
Qed.

Theorem factor_trial_division_correct n :
  2 <= n -> Z.sqrt n <= UINT_MAX ->
  match nt_factor_trial_division n with
  | Ok (Some f) => prime f /\ (f | n) /\ f * f <= n /\ forall d, 2 <= d < f -> ~ (d | n)
  | Ok None => prime n
  | _ => False
  end.
Proof.
  intros Hn Hb. unfold nt_factor_trial_division, sieve_limit.
  destruct (n <? 0) eqn:E0; [lia|].
  destruct (UINT_MAX <? Z.sqrt n) eqn:E1; [lia|]. cbn [bind].
  pose proof (ftd_loop_spec n (Z.sqrt n) (Z.to_nat (Z.sqrt n)) 2 ltac:(lia)) as H.
  pose proof (Z.sqrt_nonneg n). pose proof (Z.sqrt_spec n ltac:(lia)) as Hs.
  specialize (H ltac:(intros; lia) ltac:(lia)).
  destruct (ftd_loop (Z.to_nat (Z.sqrt n)) 2 (Z.sqrt n) n) as [f|].
  - destruct H as (H1 & H2 & H3 & H4). split; [assumption|]. split; [assumption|]. split; [|assumption].
    transitivity (Z.sqrt n * Z.sqrt n); [apply sq_le_mono; split; [lia|apply H3]|apply Hs].
  - apply no_small_divisor_prime; [assumption|]. intros e He Hee. apply H.
    split; [lia|]. apply Z.sqrt_le_square; lia.
Qed.
