(* C32 -- harmonic and Bernoulli numbers against their definitions over Q: harmonic for all
   arguments, Bernoulli on an explicit finite range by evaluation in the kernel. *)
From SE Require Import C32.NtBrute C32.NtBruteFacts.
From Coq Require Import QArith Qreduction Lia.
Local Open Scope Z_scope.

Definition q_pair (q : Q) : Z * Z := let r := Qred q in (Qnum r, Zpos (Qden r)).
Definition pair_eqb (a b : Z * Z) : bool := (fst a =? fst b) && (snd a =? snd b).

(* H(n, m) = sum_{i=1..n} 1 / i^m  (i^(-m) for negative m) *)
Definition qpow_inv (i m : Z) : Q :=
  if 0 <=? m then (1 # Z.to_pos (i ^ m))%Q else inject_Z (i ^ (- m)).
Definition harmonic_spec (n m : Z) : Q :=
  fold_right (fun i acc => Qplus (qpow_inv i m) acc) (0 # 1)%Q (zrange 1 n).

Definition harmonic_check (m n : Z) : bool := pair_eqb (nt_harmonic n m) (q_pair (harmonic_spec n m)).

(* the pair arithmetic of the model is addition in Q followed by Qred *)
Lemma qnorm_q_pair n d : 0 < d -> qnorm n d = q_pair (n # Z.to_pos d).
Proof.
  intros Hd. unfold qnorm, q_pair, Qred.
  pose proof (Z.ggcd_gcd n (Z.pos (Z.to_pos d))) as Hg.
  pose proof (Z.ggcd_correct_divisors n (Z.pos (Z.to_pos d))) as Hc.
  destruct (Z.ggcd n (Z.pos (Z.to_pos d))) as [g [aa bb]]. cbn [fst snd] in *.
  rewrite Z2Pos.id in * by assumption. destruct Hc as [Ha Hb]. subst g.
  pose proof (Z.gcd_nonneg n d).
  destruct (Z.gcd n d =? 0) eqn:E0; [apply Z.eqb_eq in E0; nia|]. apply Z.eqb_neq in E0.
  destruct (d <? 0) eqn:E1; [lia|].
  assert (Z.quot n (Z.gcd n d) = aa) as -> by (rewrite Ha at 1; rewrite Z.mul_comm; apply Z.quot_mul, E0).
  assert (Z.quot d (Z.gcd n d) = bb) as -> by (rewrite Hb at 1; rewrite Z.mul_comm; apply Z.quot_mul, E0).
  cbn. rewrite Z2Pos.id; [reflexivity|]. apply (Z.mul_pos_cancel_l (Z.gcd n d)). all: lia.
Qed.

Lemma qadd_q_pair x a b : 0 < b -> qadd (q_pair x) (a, b) = q_pair (x + (a # Z.to_pos b)).
Proof.
  intros Hb. unfold qadd. change (q_pair x) with (Qnum (Qred x), Z.pos (Qden (Qred x))). cbn [fst snd].
  rewrite qnorm_q_pair by (apply Z.mul_pos_pos; lia). unfold q_pair. rewrite (Qred_complete _ (x + (a # Z.to_pos b))); [reflexivity|].
  transitivity (Qred x + (a # Z.to_pos b))%Q; [|now rewrite Qred_correct].
  destruct (Qred x) as [rn rd], b as [|b|b]; try lia. reflexivity.
Qed.

(* the summand of harmonic_loop is the one of harmonic_spec *)
Lemma harmonic_term i m : 0 < i -> exists a b,
  (if m =? 1 then (1, i) else if 0 <? m then (1, i ^ m) else (i ^ (- m), 1)) = (a, b) /\ 0 < b /\
  (a # Z.to_pos b) = qpow_inv i m.
Proof.
  intros Hi. unfold qpow_inv.
  destruct (Z.eqb_spec m 1) as [->|H1]; [exists 1, i; rewrite Z.pow_1_r; auto|].
  destruct (Z.ltb_spec 0 m) as [Hm|Hm].
  - exists 1, (i ^ m). destruct (Z.leb_spec 0 m); [|lia]. repeat split. apply Z.pow_pos_nonneg; lia.
  - exists (i ^ (- m)), 1. destruct (Z.leb_spec 0 m); [|repeat split; lia].
    replace m with 0 by lia. repeat split.
Qed.

Lemma harmonic_loop_spec m cnt : forall i x, 0 < i ->
  harmonic_loop cnt i m (q_pair x) =
  q_pair (x + fold_right (fun i acc => qpow_inv i m + acc) (0 # 1) (zrange_from i cnt))%Q.
Proof.
  induction cnt as [|c IH]; intros i x Hi; cbn [harmonic_loop zrange_from fold_right].
  - unfold q_pair. now rewrite (Qred_complete _ _ (Qplus_0_r x)).
  - cbv zeta. destruct (harmonic_term i m Hi) as (a & b & -> & Hb & <-).
    rewrite qadd_q_pair, IH by lia. unfold q_pair. now rewrite (Qred_complete _ _ (Qplus_assoc _ _ _)).
Qed.

Theorem harmonic_correct n m : nt_harmonic n m = q_pair (harmonic_spec n m).
Proof.
  unfold nt_harmonic, harmonic_spec, zrange. replace (n - 1 + 1) with n by lia.
  change (0, 1) with (q_pair 0). rewrite harmonic_loop_spec by lia.
  unfold q_pair. now rewrite (Qred_complete _ _ (Qplus_0_l _)).
Qed.

Lemma pair_eqb_refl p : pair_eqb p p = true.
Proof. unfold pair_eqb. now rewrite !Z.eqb_refl. Qed.

Lemma harmonic_bounded :
  forallb (fun m => forallb (harmonic_check m) (zrange 0 40)) (zrange (-3) 5) = true.
Proof.
  apply forallb_forall. intros m _. apply forallb_forall. intros n _.
  unfold harmonic_check. rewrite harmonic_correct. apply pair_eqb_refl.
Qed.

(* Bernoulli numbers: B_0 = 1, sum_{j=0..m} C(m+1, j) B_j = 0 for m >= 1 (so B_1 = -1/2);
   the library returns the other convention B_1 = +1/2 and the same values otherwise *)
Definition binom_q (n k : nat) : Q := inject_Z (ffact (Z.of_nat n) k / zfact k).
Fixpoint bernoulli_list (m : nat) : list Q :=      (* [B_0; ...; B_m] *)
  match m with
  | O => [1%Q]
  | S m' =>
      let prev := bernoulli_list m' in
      let s := fold_right Qplus (0 # 1)%Q
                 (map (fun jb => Qmult (binom_q (S (S m')) (fst jb)) (snd jb)) (combine (seq 0 (S m')) prev)) in
      prev ++ [Qred (Qdiv (Qopp s) (inject_Z (Z.of_nat (S (S m')))))]
  end.
Definition bernoulli_spec (n : nat) : Q :=
  let b := nth n (bernoulli_list n) (0 # 1)%Q in if Nat.eqb n 1 then Qopp b else b.

Definition bernoulli_check (n : Z) : bool :=
  res_is pair_eqb (nt_bernoulli n) (q_pair (bernoulli_spec (Z.to_nat n))).

(* [bernoulli_list m] extends [bernoulli_list n] for n <= m, so one list serves every n of the sweep *)
Lemma bernoulli_list_length m : length (bernoulli_list m) = S m.
Proof. induction m as [|m IH]; [reflexivity|]. cbn [bernoulli_list]. rewrite app_length, IH. cbn. lia. Qed.

Lemma bernoulli_list_prefix d n m : (n <= m)%nat -> nth n (bernoulli_list m) d = nth n (bernoulli_list n) d.
Proof.
  induction m as [|m IH]; intros H; [now replace n with O by lia|].
  destruct (Nat.eq_dec n (S m)) as [->|Hn]; [reflexivity|].
  cbn [bernoulli_list]. cbv zeta. rewrite app_nth1 by (rewrite bernoulli_list_length; lia). apply IH. lia.
Qed.

Lemma bernoulli_bounded : forallb bernoulli_check (zrange 0 30) = true.
Proof.
  assert (H : let bl := bernoulli_list 30 in
              forallb (fun n => res_is pair_eqb (nt_bernoulli n)
                                  (q_pair (let b := nth (Z.to_nat n) bl (0 # 1)%Q in
                                           if Nat.eqb (Z.to_nat n) 1 then Qopp b else b)))
                      (zrange 0 30) = true) by (vm_compute; reflexivity).
  revert H. apply forallb_impl_in. intros n Hn. apply in_zrange in Hn.
  unfold bernoulli_check, bernoulli_spec. rewrite (bernoulli_list_prefix _ (Z.to_nat n) 30) by lia. trivial.
Qed.
