(* C32 -- proofs: quadratic_residues returns the increasing list of the squares modulo a;
   is_quad_residue (GMP configuration) does not see the sign of the modulus. *)
From SE Require Import C32.NtSpec C32.NtProofsDiv.
From Coq Require Import Lia ZifyBool.
Local Open Scope Z_scope.
Local Open Scope res_scope.

Lemma in_squares_upto : forall cnt i a r,
  In r (squares_upto cnt i a) <-> exists j, i <= j < i + Z.of_nat cnt /\ r = Z.rem (j * j) a.
Proof.
  induction cnt as [|c IH]; intros i a r; cbn [squares_upto In].
  - split; [tauto|]. intros (j & Hj & _). lia.
  - rewrite IH. split.
    + intros [H|(j & Hj & Hr)]; [exists i; split; [lia|congruence]|exists j; split; [lia|assumption]].
    + intros (j & Hj & Hr). destruct (Z.eq_dec j i) as [->|]; [left; congruence|right].
      exists j. split; [lia|assumption].
Qed.

Lemma in_insert_sorted x y l : In y (insert_sorted x l) <-> y = x \/ In y l.
Proof.
  induction l as [|z l IH]; cbn [insert_sorted In].
  - split; intros [H|H]; auto.
  - destruct (x <=? z); cbn [In]; [split; intros [H|H]; auto|].
    rewrite IH. tauto.
Qed.

Lemma in_sort_z y l : In y (sort_z l) <-> In y l.
Proof.
  induction l as [|x l IH]; cbn [sort_z fold_right In]; [tauto|].
  change (fold_right insert_sorted [] l) with (sort_z l).
  rewrite in_insert_sorted, IH. split; intros [H|H]; auto.
Qed.

Lemma insert_sorted_nd x l : nondecreasing l -> nondecreasing (insert_sorted x l).
Proof.
  induction 1 as [|y|y z l Hyz Hnd IH]; cbn [insert_sorted].
  - constructor.
  - destruct (x <=? y) eqn:E; constructor; try constructor; lia.
  - destruct (x <=? y) eqn:E.
    + constructor; [lia|]. constructor; assumption.
    + cbn [insert_sorted] in IH. destruct (x <=? z) eqn:E2.
      * constructor; [lia|]. exact IH.
      * constructor; [assumption|exact IH].
Qed.

Lemma sort_z_nd l : nondecreasing (sort_z l).
Proof.
  induction l as [|x l IH]; [constructor|].
  cbn [sort_z fold_right]. apply insert_sorted_nd. exact IH.
Qed.

Lemma unique_adj_cons x y l :
  unique_adj (x :: y :: l) = if x =? y then unique_adj (y :: l) else x :: unique_adj (y :: l).
Proof. reflexivity. Qed.

Lemma unique_adj_hd : forall r y, exists t, unique_adj (y :: r) = y :: t.
Proof.
  induction r as [|z r IH]; intros y.
  - eexists; reflexivity.
  - rewrite unique_adj_cons.
    destruct (y =? z) eqn:E.
    + destruct (IH z) as (t & Ht). exists t. rewrite Ht. f_equal. lia.
    + eexists; reflexivity.
Qed.

Lemma in_unique_adj y l : In y (unique_adj l) <-> In y l.
Proof.
  induction l as [|x [|z r] IH]; [tauto|cbn; tauto|].
  rewrite unique_adj_cons.
  destruct (x =? z) eqn:E.
  - rewrite IH. cbn [In]. split; [tauto|]. intros [H|H]; [left; lia|assumption].
  - cbn [In] in *. rewrite IH. tauto.
Qed.

Lemma unique_adj_increasing l : nondecreasing l -> increasing (unique_adj l).
Proof.
  induction 1 as [|y|y z l Hyz Hnd IH].
  - constructor.
  - constructor.
  - rewrite unique_adj_cons.
    destruct (y =? z) eqn:E; [exact IH|].
    destruct (unique_adj_hd l z) as (t & Ht). rewrite Ht in *.
    constructor; [lia|exact IH].
Qed.

Theorem quadratic_residues_correct a :
  1 <= a <= LONG_MAX ->
  exists l, nt_quadratic_residues a = Ok l /\ increasing l /\
            forall r, In r l <-> exists x, 0 <= x < a /\ r = (x * x) mod a.
Proof.
  intros Ha. unfold nt_quadratic_residues.
  destruct (a <? 1) eqn:E1; [lia|]. destruct (LONG_MAX <? a) eqn:E2; [lia|].
  eexists. split; [reflexivity|]. split.
  - apply unique_adj_increasing, sort_z_nd.
  - intros r. rewrite in_unique_adj, in_sort_z, in_squares_upto.
    set (h := Z.quot a 2).
    assert (Hh : 0 <= h /\ a <= 2 * h + 1 /\ 2 * h <= a).
    { unfold h. pose proof (Z.quot_rem' a 2). pose proof (Z.rem_bound_pos a 2). lia. }
    rewrite Nat2Z.inj_succ, Z2Nat.id by lia.
    split.
    + intros (j & Hj & Hr). exists j. split; [lia|].
      rewrite Hr. apply Z.rem_mod_nonneg; nia.
    + intros (x & Hx & Hr). destruct (Z.le_gt_cases x h) as [Hxh|Hxh].
      * exists x. split; [lia|]. rewrite Hr. symmetry. apply Z.rem_mod_nonneg; nia.
      * exists (a - x). split; [lia|]. rewrite Hr.
        rewrite Z.rem_mod_nonneg by nia.
        replace ((a - x) * (a - x)) with (x * x + (a - 2 * x) * a) by ring.
        rewrite Z.mod_add by lia. reflexivity.
Qed.

Theorem quadratic_residues_domain a : a < 1 -> nt_quadratic_residues a = ErrExn EXN_SYMENGINE.
Proof. intros H. unfold nt_quadratic_residues. destruct (a <? 1) eqn:E; [reflexivity|lia]. Qed.

Lemma eqb_opp_0 x : (- x =? 0) = (x =? 0).
Proof. now destruct x. Qed.

(* for n > 0 the sign of the lower argument contributes the factor (a | -1) on both sides *)
Lemma mp_kronecker_opp_pos c a n : 0 < n ->
  mp_kronecker c a (- n) = do x <- mp_kronecker c a n; Ok ((if a <? 0 then -1 else 1) * x).
Proof.
  intros Hn. unfold mp_kronecker. rewrite Z.abs_opp, Z.rem_opp_l', !eqb_opp_0.
  destruct n as [|q|q]; try lia. cbn [Z.opp Z.eqb Z.ltb Z.compare andb].
  destruct (strip_twos _ _ 0) as [m j]. destruct (unchecked_jacobi _ a m) as [jm| | |]; cbn [bind]; trivial.
  destruct (Z.rem (Z.pos q) 2 =? 0); cbn [bind]; f_equal; ring.
Qed.

(* is_quad_residue in the GMP configuration sees p through |p| (the reduced a is >= 0, where
   mpz_kronecker ignores the sign of the lower argument) *)
Lemma mp_kronecker_opp c a n : 0 <= a -> mp_kronecker c a (- n) = mp_kronecker c a n.
Proof.
  intros Ha. unfold mp_kronecker.
  rewrite (proj2 (Z.ltb_ge a 0) Ha), !Bool.andb_false_r, Z.abs_opp, Z.rem_opp_l', !eqb_opp_0.
  reflexivity.
Qed.

Lemma nt_is_quad_residue_gmp_opp a p : nt_is_quad_residue GMP a (- p) = nt_is_quad_residue GMP a p.
Proof.
  unfold nt_is_quad_residue. rewrite Z.abs_opp, eqb_opp_0.
  destruct (p =? 0); [reflexivity|].
  destruct (if (Z.abs p <=? a) || (a <? 0) then fdiv_r a (Z.abs p) else Ok a) as [af| | |]; cbn [bind]; trivial.
  destruct (af <? 2) eqn:E2; [reflexivity|]. apply Z.ltb_ge in E2.
  destruct (negb (is_prime (Z.abs p))); [|reflexivity].
  destruct (Z.rem (Z.abs p) 2 =? 1); [|reflexivity].
  unfold mp_jacobi. now rewrite mp_kronecker_opp by lia.
Qed.

(* is_quad_residue first reduces a modulo |p| *)
Lemma nt_is_quad_residue_mod c a p : p <> 0 -> nt_is_quad_residue c a p = nt_is_quad_residue c (a mod Z.abs p) p.
Proof.
  intros Hp. unfold nt_is_quad_residue. destruct (p =? 0) eqn:E0; [lia|].
  assert (E : forall x, (if (Z.abs p <=? x) || (x <? 0) then fdiv_r x (Z.abs p) else Ok x) = Ok (x mod Z.abs p)).
  { intros x. destruct ((Z.abs p <=? x) || (x <? 0)) eqn:C; [apply fdiv_r_mod; lia|].
    apply Bool.orb_false_iff in C as [C1 C2]. apply Z.leb_gt in C1. apply Z.ltb_ge in C2.
    now rewrite Z.mod_small by lia. }
  now rewrite !E, Z.mod_mod by lia.
Qed.

(* is_nth_residue factors the modulus and asks each prime power *)
Lemma nt_is_nth_residue_factored a k m pm :
  0 < m -> nt_prime_factor_multiplicities m = Ok pm -> nt_is_nth_residue a k m = all_prime_powers pm a k.
Proof.
  intros Hm E. unfold nt_is_nth_residue. destruct (m =? 0) eqn:E0; [lia|].
  destruct (Z.eqb_spec m 1) as [->|_]; [injection E as <-; reflexivity|].
  now rewrite Z.abs_eq, E by lia.
Qed.
