(* C32 -- proofs: prime_factors is the factorisation written out with repetitions
   (primes in nondecreasing order, product |n|); mertens is the sum of the Moebius values. *)
From SE Require Import C32.NtSpec C32.NtProofsFactor C32.NtProofsTotient.
From Coq Require Import Lia ZifyBool.
Local Open Scope Z_scope.
Local Open Scope res_scope.

Definition expand (l : list (Z * Z)) : list Z :=
  flat_map (fun pe => repeat (fst pe) (Z.to_nat (snd pe))) l.

Lemma expand_app l1 l2 : expand (l1 ++ l2) = expand l1 ++ expand l2.
Proof. unfold expand. apply flat_map_app. Qed.

Lemma expand_snoc l p k : expand (l ++ [(p, k)]) = expand l ++ repeat p (Z.to_nat k).
Proof. rewrite expand_app. unfold expand at 2. cbn [flat_map fst snd]. rewrite app_nil_r. reflexivity. Qed.

(* both loops run in lockstep *)
Lemma pf_pfm_lockstep limit : forall cnt p n' acc,
  2 <= p -> 0 < n' -> n' <> 1 -> Forall (fun pe => fst pe < p) acc ->
  pf_loop cnt p limit n' (expand acc)
  = (fst (pfm_loop cnt p limit n' acc), expand (snd (pfm_loop cnt p limit n' acc))).
Proof.
  induction cnt as [|c IH]; intros p n' acc Hp Hn Hn1 Hall; cbn [pf_loop pfm_loop]; [reflexivity|].
  destruct (limit <? p); [reflexivity|].
  pose proof (Forall_lt_succ _ _ Hall) as Hall'.
  destruct (is_prime p) eqn:E2; [|apply IH; (assumption || lia)].
  destruct (divide_out_correct n' p Hp Hn) as (k & q & Hk & Ed & E3 & E4 & E5). rewrite Ed.
  destruct (0 <? k) eqn:E6.
  - rewrite map_insert_last by assumption.
    rewrite <- expand_snoc.
    destruct (q =? 1) eqn:E7; [reflexivity|].
    apply IH; try lia.
    apply Forall_app. split; [assumption|]. constructor; [cbn; lia|constructor].
  - assert (k = 0) by lia. subst k. rewrite Z.pow_0_r, Z.mul_1_r in E3. subst q.
    change (Z.to_nat 0) with O. cbn [repeat]. rewrite app_nil_r.
    destruct (n' =? 1) eqn:E7; [lia|].
    apply IH; assumption || lia.
Qed.

Lemma increasing_all_gt x l : increasing (x :: l) -> Forall (fun y => x < y) l.
Proof.
  revert x. induction l as [|y l IH]; intros x H; [constructor|].
  inversion H as [| |? ? ? Hxy Hinc]; subst. constructor; [assumption|].
  eapply Forall_impl; [|apply IH; exact Hinc]. cbn. intros; lia.
Qed.

Lemma increasing_tail x l : increasing (x :: l) -> increasing l.
Proof. intros H. inversion H; subst; [constructor|assumption]. Qed.

Lemma nondecreasing_repeat_app p k r :
  nondecreasing r -> Forall (fun y => p <= y) r -> nondecreasing (repeat p k ++ r).
Proof.
  intros Hr Hall. induction k as [|k IH]; cbn [repeat app]; [assumption|].
  destruct (repeat p k ++ r) as [|z t] eqn:E; [constructor|].
  constructor; [|exact IH].
  destruct k; cbn [repeat app] in E.
  - subst r. exact (Forall_inv Hall).
  - injection E as <- _. lia.
Qed.

Lemma prod_list_repeat_app p k r : prod_list (repeat p k ++ r) = p ^ Z.of_nat k * prod_list r.
Proof.
  induction k as [|k IH]; cbn [repeat app].
  - change (Z.of_nat 0) with 0. rewrite Z.pow_0_r. ring.
  - unfold prod_list in *. cbn [fold_right]. rewrite IH, Nat2Z.inj_succ, Z.pow_succ_r by lia. ring.
Qed.

Lemma expand_props l :
  Forall (fun pe : Z * Z => prime (fst pe) /\ 1 <= snd pe) l -> increasing (map fst l) ->
  Forall prime (expand l) /\ nondecreasing (expand l) /\ prod_list (expand l) = prod_pe l /\
  Forall (fun y => In y (map fst l)) (expand l).
Proof.
  induction l as [|[p e] l IH]; intros Hall Hinc.
  - repeat split; constructor.
  - pose proof (Forall_inv Hall) as (Hp & He). cbn [fst snd] in Hp, He.
    cbn [map fst] in Hinc.
    destruct (IH (Forall_inv_tail Hall) (increasing_tail _ _ Hinc)) as (I1 & I2 & I3 & I4).
    change (expand ((p, e) :: l)) with (repeat p (Z.to_nat e) ++ expand l).
    split; [|split; [|split]].
    + apply Forall_app. split; [|assumption]. apply Forall_forall. intros x Hx.
      apply repeat_spec in Hx. subst. assumption.
    + apply nondecreasing_repeat_app; [assumption|].
      pose proof (increasing_all_gt _ _ Hinc) as Hgt. rewrite Forall_forall in *.
      intros y Hy. specialize (I4 y Hy). specialize (Hgt y I4). lia.
    + unfold prod_pe. cbn [fold_right fst snd]. fold (prod_pe l).
      rewrite <- I3, prod_list_repeat_app, Z2Nat.id by lia. reflexivity.
    + apply Forall_app. split.
      * apply Forall_forall. intros x Hx. apply repeat_spec in Hx. subst. left. reflexivity.
      * eapply Forall_impl; [|exact I4]. cbn. intros; right; assumption.
Qed.

(* prime_factors returns what prime_factor_multiplicities returns, written out *)
Lemma prime_factors_expand n fl :
  n <> 0 -> nt_prime_factor_multiplicities n = Ok fl -> nt_prime_factors n = Ok (expand fl).
Proof.
  intros Hn. unfold nt_prime_factors, nt_prime_factor_multiplicities, sieve_limit.
  destruct (n =? 0) eqn:E0; [lia|].
  destruct (UINT_MAX <? Z.sqrt (Z.abs n)); [discriminate|]. cbn [bind].
  set (N := Z.abs n). assert (HN : 0 < N) by (unfold N; lia). clearbody N.
  destruct (Z.eq_dec N 1) as [->|HN1].
  { vm_compute. intros H. injection H as <-. reflexivity. }
  pose proof (pf_pfm_lockstep (Z.sqrt N) (Z.to_nat (Z.sqrt N)) 2 N [] ltac:(lia) HN HN1 ltac:(constructor)) as Hls.
  change (expand []) with (@nil Z) in Hls. rewrite Hls.
  destruct (pfm_loop (Z.to_nat (Z.sqrt N)) 2 (Z.sqrt N) N []) as [n' l] eqn:E. cbn [fst snd].
  destruct (pfm_loop_final N n' l HN E) as (_ & _ & _ & [->|(Hp & Hall)]).
  - intros H. injection H as <-. reflexivity.
  - pose proof (prime_ge_2 _ Hp). destruct (n' =? 1) eqn:E2; [lia|].
    rewrite map_insert_last by assumption. intros Efl. injection Efl as <-. now rewrite expand_snoc.
Qed.

Theorem prime_factors_correct n :
  n <> 0 -> Z.sqrt (Z.abs n) <= UINT_MAX ->
  exists l, nt_prime_factors n = Ok l /\
            Forall prime l /\ nondecreasing l /\ prod_list l = Z.abs n.
Proof.
  intros Hn Hlim.
  destruct (factorisation_correct n Hn Hlim) as (fl & Efl & F1 & F2 & F3).
  destruct (expand_props fl F1 F2) as (P1 & P2 & P3 & _).
  exists (expand fl). split; [apply prime_factors_expand; assumption|].
  split; [assumption|split; [assumption|congruence]].
Qed.

(* mertens(a) = sum of mobius(i), i = 1..a *)
Theorem mertens_correct a :
  0 <= a <= LONG_MAX ->
  exists s, nt_mertens a = Ok s /\
            forall f, (forall k, 1 <= k <= a -> nt_mobius k = Ok (f k)) ->
                      s = fold_right Z.add 0 (map f (map (fun j => 1 + Z.of_nat j) (seq 0 (Z.to_nat a)))).
Proof.
  intros Ha. unfold nt_mertens.
  destruct (mertens_loop_spec (Z.to_nat a) 1 0 ltac:(lia) ltac:(lia)) as (s & E & Hs).
  exists s. split; [rewrite E; f_equal; lia|].
  intros f Hf. apply Hs. intros k Hk. apply Hf. lia.
Qed.
