(* C32 -- proofs: polygonal numbers and roots, perfect-power decomposition (soundness),
   and the witnesses of the defects transcribed by the model. *)
From SE Require Import C32.NtSpec.
From Coq Require Import Lia ZifyBool.
Local Open Scope Z_scope.
Local Open Scope res_scope.

Lemma consecutive_even n : exists k, n * (n - 1) = 2 * k.
Proof.
  destruct (Z.Even_or_Odd n) as [(m & ->)|(m & ->)].
  - exists (m * (2 * m - 1)). ring.
  - exists ((2 * m + 1) * m). ring.
Qed.

(* the division by two in mp_polygonal_number is exact, for all integers *)
Theorem polygonal_number_correct s n :
  2 * nt_polygonal_number s n = (s - 2) * n * n - (s - 4) * n.
Proof.
  unfold nt_polygonal_number. destruct (consecutive_even n) as (k & Hk).
  replace ((s - 2) * n * n - (s - 4) * n) with ((s * k - n * n + 2 * n) * 2) by nia.
  rewrite Z.quot_mul by lia. ring.
Qed.

(* completing the square *)
Lemma poly2_square s k :
  4 * (s - 2) * poly2 s k + (s - 4) * (s - 4) = (2 * (s - 2) * k - (s - 4)) * (2 * (s - 2) * k - (s - 4)).
Proof. unfold poly2. ring. Qed.

Lemma sqrt_bracket D u v : 0 <= D -> 0 <= u <= Z.sqrt D -> Z.sqrt D < v -> u * u <= D < v * v.
Proof.
  intros HD Hu Hv. pose proof (Z.sqrt_spec D HD) as Ht. unfold Z.succ in Ht. split.
  - transitivity (Z.sqrt D * Z.sqrt D); [apply Z.mul_le_mono_nonneg; lia|lia].
  - assert ((Z.sqrt D + 1) * (Z.sqrt D + 1) <= v * v) by (apply Z.mul_le_mono_nonneg; lia). lia.
Qed.

Theorem polygonal_root_correct s x :
  3 <= s -> 1 <= x ->
  exists r, nt_principal_polygonal_root s x = Ok r /\ 1 <= r /\
            poly2 s r <= 2 * x < poly2 s (r + 1).
Proof.
  intros Hs Hx. unfold nt_principal_polygonal_root.
  replace ((s - 4) ^ 2) with ((s - 4) * (s - 4)) by ring.
  set (c := s - 2). set (e := s - 4).
  set (D := 8 * x * c + e * e).
  assert (Hc : 1 <= c) by (unfold c; lia).
  assert (HD : s * s <= D) by (unfold D, c, e; nia).
  destruct (D <? 0) eqn:E0; [nia|].
  set (t := Z.sqrt D).
  assert (Hts : s <= t) by (apply Z.sqrt_le_square; nia).
  unfold tdiv_q, tdiv_qr. destruct (2 * c =? 0) eqn:E1; [lia|]. cbn [bind].
  replace (t + s - 4) with (t + e) by (unfold e; lia).
  set (r := Z.quot (t + e) (2 * c)).
  assert (Hr : 2 * c * r <= t + e < 2 * c * (r + 1)).
  { unfold r. rewrite Z.quot_div_nonneg by (unfold e; lia).
    pose proof (Z.div_mod (t + e) (2 * c) ltac:(lia)).
    pose proof (Z.mod_pos_bound (t + e) (2 * c) ltac:(lia)). lia. }
  assert (Hr1 : 1 <= r).
  { destruct (Z.le_gt_cases 1 r); [assumption|exfalso].
    assert (2 * c * (r + 1) <= 2 * c * 1) by (apply Z.mul_le_mono_nonneg_l; lia).
    unfold c, e in *. lia. }
  exists r. split; [reflexivity|]. split; [assumption|].
  (* 2cr - e <= t < 2c(r+1) - e, and the squares of these two are 4c * poly2 s r + e^2 and
     4c * poly2 s (r+1) + e^2, while D = 4c * 2x + e^2 *)
  destruct (sqrt_bracket D (2 * c * r - e) (2 * c * (r + 1) - e)) as [Huu Hvv]; [nia| |fold t; lia|].
  { fold t. split; [|lia].
    assert (2 * c * 1 <= 2 * c * r) by (apply Z.mul_le_mono_nonneg_l; lia). unfold c, e in *. lia. }
  pose proof (poly2_square s r) as Eu. pose proof (poly2_square s (r + 1)) as Ev. fold c e in Eu, Ev.
  rewrite <- Eu in Huu. rewrite <- Ev in Hvv. unfold D in Huu, Hvv.
  split.
  - apply (Z.mul_le_mono_pos_l _ _ (4 * c)); lia.
  - apply (Z.mul_lt_mono_pos_l (4 * c)); lia.
Qed.

(* the polygonal numbers increase with the index, so the root of P(s, n) is n *)
Lemma poly2_mono s a b : 3 <= s -> 0 <= a <= b -> poly2 s a <= poly2 s b.
Proof.
  intros Hs Hab.
  assert (E : poly2 s b - poly2 s a = (b - a) * ((s - 2) * (a + b - 1) + 2)) by (unfold poly2; ring).
  destruct (Z.eq_dec a b) as [->|]; [lia|].
  assert (0 <= (s - 2) * (a + b - 1)) by (apply Z.mul_nonneg_nonneg; lia).
  assert (0 <= (b - a) * ((s - 2) * (a + b - 1) + 2)) by (apply Z.mul_nonneg_nonneg; lia). lia.
Qed.

Theorem polygonal_root_of_number s n :
  3 <= s -> 1 <= n ->
  nt_principal_polygonal_root s (nt_polygonal_number s n) = Ok n.
Proof.
  intros Hs Hn.
  pose proof (polygonal_number_correct s n) as Hp. fold (poly2 s n) in Hp.
  assert (Hx : 1 <= nt_polygonal_number s n).
  { pose proof (poly2_mono s 1 n Hs ltac:(lia)) as Hm. unfold poly2 in Hm at 1. lia. }
  destruct (polygonal_root_correct s _ Hs Hx) as (r & E & Hr1 & Hlo & Hhi).
  rewrite E. f_equal. rewrite Hp in Hlo, Hhi.
  destruct (Z.lt_trichotomy r n) as [Hlt|[Heq|Hgt]]; [exfalso|assumption|exfalso].
  - pose proof (poly2_mono s (r + 1) n Hs ltac:(lia)). lia.
  - pose proof (poly2_mono s (n + 1) r Hs ltac:(lia)).
    assert (poly2 s (n + 1) - poly2 s n = 2 * (s - 2) * n + 2) by (unfold poly2; ring).
    assert (0 <= 2 * (s - 2) * n) by nia. lia.
Qed.

Lemma ppd_loop_sound : forall fuel n p lowest best r,
  2 <= p -> fst best ^ snd best = n /\ 1 <= snd best ->
  ppd_loop fuel n p lowest best = Ok r -> fst r ^ snd r = n /\ 1 <= snd r.
Proof.
  induction fuel as [|f IH]; intros n p lowest best r Hp Hb H; cbn [ppd_loop] in H; [discriminate|].
  destruct (2 ^ p <=? n) eqn:E1.
  - destruct (ppd_bisect (S (S (Z.to_nat (Z.log2 n)))) n p 2 n) as [i| | |]; cbn [bind] in H; try discriminate.
    destruct (i ^ p =? n) eqn:E2.
    + destruct lowest.
      * injection H as <-. cbn [fst snd]. split; lia.
      * eapply IH; [| |exact H]; [lia|]. cbn [fst snd]. split; lia.
    + eapply IH; [| |exact H]; [lia|assumption].
  - injection H as <-. assumption.
Qed.

Theorem perfect_power_decomposition_sound n lowest b e :
  nt_perfect_power_decomposition n lowest = Ok (b, e) -> b ^ e = n /\ 1 <= e.
Proof.
  unfold nt_perfect_power_decomposition. intros H.
  apply (ppd_loop_sound _ n 2 lowest (n, 1) (b, e)) in H; [exact H|lia|].
  cbn [fst snd]. rewrite Z.pow_1_r. lia.
Qed.

(* defects of the code, as transcribed by the model *)

(* crt with a single modulus returns the remainder unreduced *)
Theorem crt_single_modulus_not_reduced :
  exists c r m, 0 < m /\ nt_crt c [r] [m] = Ok (Some r) /\ ~ (0 <= r < m).
Proof. exists GMP, 22, 21. split; [lia|]. split; [reflexivity|lia]. Qed.

(* is_nth_residue does not normalise a negative a: -1 is reported to be a square modulo 4 *)
Theorem is_nth_residue_negative_refuted :
  nt_is_nth_residue (-1) 2 4 = Ok true /\ forall x, ~ cong 4 (x * x) (-1).
Proof.
  split; [vm_compute; reflexivity|]. intros x (k & Hk).
  destruct (Z.Even_or_Odd x) as [(m & ->)|(m & ->)]; lia.
Qed.

(* is_nth_residue divides by the exponent: n = 0 is a division by zero (the process dies) *)
Theorem is_nth_residue_zero_exponent_crash :
  nt_is_nth_residue 2 0 4 = ErrExn EXN_FPE.
Proof. vm_compute. reflexivity. Qed.

(* Lehman's method starts at floor(sqrt(4kn)) instead of the ceiling and misses 35 = 5 * 7 *)
Theorem lehman_misses_factor :
  nt_factor_lehman 35 = Ok None /\ 35 = 5 * 7.
Proof. split; [vm_compute; reflexivity|reflexivity]. Qed.

(* boost configuration: is_quad_residue passes the negative modulus to mp_jacobi, which throws *)
Theorem boost_is_quad_residue_negative_modulus :
  nt_is_quad_residue BOOST 5 (-9) = ErrExn EXN_STD /\ nt_is_quad_residue GMP 5 (-9) = Ok false.
Proof. split; vm_compute; reflexivity. Qed.

