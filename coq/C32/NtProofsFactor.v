(* C32 -- proofs: trial-division factorisation (prime_factor_multiplicities,
   prime_factors, factor_trial_division) returns the prime factorisation. *)
From SE Require Import C32.NtSpec.
From Coq Require Import Lia ZifyBool.
Local Open Scope Z_scope.
Local Open Scope res_scope.

Lemma sq_le_mono a b : 0 <= a <= b -> a * a <= b * b.
Proof. intros. apply Z.mul_le_mono_nonneg; lia. Qed.

Lemma no_divisor_true : forall cnt d n,
  2 <= d -> n < (d + Z.of_nat cnt) * (d + Z.of_nat cnt) ->
  no_divisor cnt d n = true ->
  forall e, d <= e -> e * e <= n -> ~ (e | n).
Proof.
  induction cnt as [|c IH]; intros d n Hd Hb Ht e He Hee.
  - change (Z.of_nat 0) with 0 in Hb. rewrite Z.add_0_r in Hb.
    pose proof (sq_le_mono d e). lia.
  - cbn [no_divisor] in Ht.
    destruct (n <? d * d) eqn:E1.
    + pose proof (sq_le_mono d e). lia.
    + destruct (Z.rem n d =? 0) eqn:E2; [discriminate|].
      destruct (Z.eq_dec e d) as [->|Hne].
      * intros Hdiv. apply Z.rem_divide in Hdiv; lia.
      * apply (IH (d + 1) n); [lia| |exact Ht|lia|exact Hee].
        replace (d + 1 + Z.of_nat c) with (d + Z.of_nat (S c)) by lia. exact Hb.
Qed.

Lemma no_divisor_false : forall cnt d n,
  2 <= d -> no_divisor cnt d n = false ->
  exists e, d <= e /\ e * e <= n /\ (e | n).
Proof.
  induction cnt as [|c IH]; intros d n Hd Hf; cbn [no_divisor] in Hf; [discriminate|].
  destruct (n <? d * d) eqn:E1; [discriminate|].
  destruct (Z.rem n d =? 0) eqn:E2.
  - exists d. split; [lia|]. split; [lia|]. apply Z.rem_divide; lia.
  - destruct (IH (d + 1) n ltac:(lia) Hf) as (e & H1 & H2 & H3).
    exists e. split; [lia|]. split; assumption.
Qed.

Lemma no_small_divisor_prime n :
  2 <= n -> (forall e, 2 <= e -> e * e <= n -> ~ (e | n)) -> prime n.
Proof.
  intros Hn H. apply prime_alt. split; [lia|].
  intros k Hk (j & Hj).
  assert (Hj1 : 1 < j) by nia.
  destruct (Z.le_gt_cases (k * k) n) as [Hkk|Hkk].
  - apply (H k); [lia|assumption|]. exists j. exact Hj.
  - assert (Hjk : j < k) by (apply (Z.mul_lt_mono_pos_r k); lia).
    assert (j * j <= j * k) by (apply Z.mul_le_mono_nonneg_l; lia).
    apply (H j); [lia|lia|]. exists k. lia.
Qed.

Lemma is_prime_true n : is_prime n = true -> prime n.
Proof.
  unfold is_prime. destruct (n <? 2) eqn:E; [discriminate|]. intros H.
  apply no_small_divisor_prime; [lia|].
  apply (no_divisor_true (Z.to_nat (Z.sqrt n)) 2 n); [lia| |exact H].
  rewrite Z2Nat.id by apply Z.sqrt_nonneg.
  pose proof (Z.sqrt_spec n ltac:(lia)) as Hs. unfold Z.succ in Hs.
  pose proof (Z.sqrt_nonneg n).
  assert ((Z.sqrt n + 1) * (Z.sqrt n + 1) <= (2 + Z.sqrt n) * (2 + Z.sqrt n)) by (apply sq_le_mono; lia).
  lia.
Qed.

Lemma is_prime_false n :
  2 <= n -> is_prime n = false -> exists e, 2 <= e < n /\ (e | n).
Proof.
  unfold is_prime. intros Hn. destruct (n <? 2) eqn:E; [lia|]. intros H.
  destruct (no_divisor_false (Z.to_nat (Z.sqrt n)) 2 n ltac:(lia) H) as (e & H1 & H2 & H3).
  exists e. split; [nia|assumption].
Qed.

Lemma is_prime_iff n : is_prime n = true <-> prime n.
Proof.
  split; [apply is_prime_true|]. intros Hp.
  destruct (is_prime n) eqn:E; [reflexivity|exfalso].
  pose proof (prime_ge_2 _ Hp).
  destruct (is_prime_false n ltac:(lia) E) as (e & He & Hd).
  apply prime_alt in Hp. destruct Hp as [_ Hp]. apply (Hp e); [lia|assumption].
Qed.

Lemma divide_out_spec : forall fuel n p cnt,
  2 <= p -> 0 < n -> n < 2 ^ Z.of_nat fuel ->
  exists k q, 0 <= k /\ divide_out fuel n p cnt = (q, cnt + k) /\ n = q * p ^ k /\ 0 < q /\ ~ (p | q).
Proof.
  induction fuel as [|f IH]; intros n p cnt Hp Hn Hb.
  - change (2 ^ Z.of_nat 0) with 1 in Hb. lia.
  - cbn [divide_out]. destruct (Z.rem n p =? 0) eqn:E.
    + assert (Hd : (p | n)) by (apply Z.rem_divide; lia). destruct Hd as (q1 & Hq).
      replace (Z.quot n p) with q1 by (rewrite Hq; symmetry; apply Z.quot_mul; lia).
      rewrite Nat2Z.inj_succ, Z.pow_succ_r in Hb by lia.
      destruct (IH q1 p (cnt + 1) Hp ltac:(nia) ltac:(nia)) as (k & q & Hk & E1 & E2 & E3 & E4).
      exists (k + 1), q. rewrite E1, Z.pow_add_r, Z.pow_1_r by lia.
      split; [lia|]. split; [f_equal; lia|]. split; [rewrite Hq, E2; ring|]. split; assumption.
    + exists 0, n. rewrite Z.pow_0_r. split; [lia|]. split; [f_equal; lia|]. split; [ring|].
      split; [assumption|]. intros Hd. apply Z.rem_divide in Hd; lia.
Qed.

(* with the fuel the model gives it, divide_out takes every factor p out of n *)
Lemma divide_out_correct n p :
  2 <= p -> 0 < n ->
  exists k q, 0 <= k /\ divide_out (divide_out_fuel n) n p 0 = (q, k) /\ n = q * p ^ k /\ 0 < q /\ ~ (p | q).
Proof.
  intros Hp Hn. apply (divide_out_spec (divide_out_fuel n) n p 0 Hp Hn).
  unfold divide_out_fuel. rewrite Nat2Z.inj_succ, Z2Nat.id by apply Z.log2_nonneg.
  pose proof (Z.log2_spec n Hn). lia.
Qed.

Lemma prod_pe_app l1 l2 : prod_pe (l1 ++ l2) = prod_pe l1 * prod_pe l2.
Proof.
  induction l1 as [|x l IH]; cbn [app]; unfold prod_pe in *; cbn [fold_right].
  - ring.
  - rewrite IH. ring.
Qed.

Lemma map_insert_last k v l :
  Forall (fun pe => fst pe < k) l -> map_insert k v l = l ++ [(k, v)].
Proof.
  induction l as [|[k' v'] l IH]; intros H; cbn [map_insert app]; [reflexivity|].
  pose proof (Forall_inv H) as H1. cbn in H1.
  destruct (k <? k') eqn:E1; [lia|]. destruct (k =? k') eqn:E2; [lia|].
  rewrite IH by (eapply Forall_inv_tail; eassumption). reflexivity.
Qed.

Lemma increasing_snoc l x :
  increasing l -> Forall (fun y => y < x) l -> increasing (l ++ [x]).
Proof.
  induction 1 as [|y|y z l Hyz Hinc IH]; intros Hall; cbn [app].
  - constructor.
  - constructor; [exact (Forall_inv Hall)|constructor].
  - constructor; [assumption|]. apply IH. eapply Forall_inv_tail; eassumption.
Qed.

(* the loops' invariant when they arrive at p: acc factors N / n' into primes below p, and n' has no divisor in [2, p) *)
Definition pf_inv (N p n' : Z) (acc : list (Z * Z)) : Prop :=
  0 < n' /\ prod_pe acc * n' = N /\
  (forall d, 2 <= d < p -> ~ (d | n')) /\
  Forall (fun pe => prime (fst pe) /\ 1 <= snd pe) acc /\ Forall (fun pe => fst pe < p) acc /\
  increasing (map fst acc).

Lemma pf_inv_init N : 0 < N -> pf_inv N 2 N [].
Proof.
  intros HN. unfold pf_inv. split; [assumption|]. split; [unfold prod_pe; cbn [fold_right]; ring|].
  split; [intros d Hd; lia|]. repeat split; constructor.
Qed.

Lemma Forall_lt_succ p (acc : list (Z * Z)) :
  Forall (fun pe => fst pe < p) acc -> Forall (fun pe => fst pe < p + 1) acc.
Proof. apply Forall_impl. intros; lia. Qed.

Lemma pf_inv_next N p n' acc :
  2 <= p -> pf_inv N p n' acc -> ~ (p | n') -> pf_inv N (p + 1) n' acc.
Proof.
  intros Hp (H1 & H2 & H3 & H4 & H5 & H6) Hnd. unfold pf_inv.
  split; [assumption|]. split; [assumption|].
  split; [|split; [assumption|split; [apply Forall_lt_succ|]; assumption]].
  intros d Hd. destruct (Z.eq_dec d p) as [->|]; [assumption|apply H3; lia].
Qed.

Lemma pf_inv_add N p n' acc k q :
  2 <= p -> prime p -> 1 <= k -> pf_inv N p n' acc -> n' = q * p ^ k -> 0 < q -> ~ (p | q) ->
  pf_inv N (p + 1) q (acc ++ [(p, k)]).
Proof.
  intros Hp Hpr Hk (H1 & H2 & H3 & H4 & H5 & H6) E Hq Hnd.
  unfold pf_inv. split; [assumption|]. split; [|split; [|split; [|split]]].
  - rewrite prod_pe_app. unfold prod_pe at 2. cbn [fold_right fst snd]. rewrite <- H2, E. ring.
  - intros d Hd. destruct (Z.eq_dec d p) as [->|]; [assumption|].
    intros Hdq. apply (H3 d); [lia|]. rewrite E. apply Z.divide_mul_l. assumption.
  - apply Forall_app. split; [assumption|]. constructor; [|constructor]. cbn. split; assumption.
  - apply Forall_app. split; [apply Forall_lt_succ; assumption|]. constructor; [|constructor]. cbn. lia.
  - rewrite map_app. cbn [map fst]. apply increasing_snoc; [assumption|]. rewrite Forall_map. assumption.
Qed.

(* a composite p has a smaller divisor, so it divides nothing that is free of divisors below p *)
Lemma composite_not_least_divisor p n :
  2 <= p -> is_prime p = false -> (forall d, 2 <= d < p -> ~ (d | n)) -> ~ (p | n).
Proof.
  intros Hp E H Hpn. destruct (is_prime_false p Hp E) as (e & He & Hd).
  apply (H e); [lia|]. eapply Z.divide_trans; eassumption.
Qed.

Lemma pfm_loop_spec N limit : forall cnt p n' acc,
  2 <= p -> pf_inv N p n' acc -> limit + 2 <= p + Z.of_nat cnt ->
  forall n1 l, pfm_loop cnt p limit n' acc = (n1, l) ->
  exists p', pf_inv N p' n1 l /\ (n1 = 1 \/ limit < p').
Proof.
  induction cnt as [|c IH]; intros p n' acc Hp Hinv Hc; cbn [pfm_loop].
  - intros n1 l E. injection E as <- <-. exists p. split; [assumption|]. right. lia.
  - destruct (limit <? p) eqn:E1.
    { intros n1 l E. injection E as <- <-. exists p. split; [assumption|]. right. lia. }
    destruct (is_prime p) eqn:E2.
    + apply is_prime_true in E2.
      pose proof Hinv as (Hn' & _ & _ & _ & Hall & _).
      destruct (divide_out_correct n' p Hp Hn') as (k & q & Hk & Ed & E3 & E4 & E5). rewrite Ed.
      destruct (0 <? k) eqn:E6.
      * rewrite map_insert_last by assumption.
        pose proof (pf_inv_add N p n' acc k q Hp E2 ltac:(lia) Hinv E3 E4 E5) as Hinv'.
        destruct (q =? 1) eqn:E7; [|apply IH; assumption || lia].
        intros n1 l E. injection E as <- <-. exists (p + 1). split; [assumption|]. left. lia.
      * assert (k = 0) by lia. subst k. rewrite Z.pow_0_r, Z.mul_1_r in E3. subst q.
        apply IH; [lia|apply pf_inv_next; assumption|lia].
    + apply IH; [lia| |lia]. apply pf_inv_next; [assumption..|].
      apply composite_not_least_divisor; [assumption..|apply Hinv].
Qed.

Lemma prod_pe_pos acc :
  Forall (fun pe : Z * Z => prime (fst pe) /\ 1 <= snd pe) acc -> 1 <= prod_pe acc.
Proof.
  induction acc as [|[p e] l IH]; intros H; unfold prod_pe in *; cbn [fold_right fst snd]; [lia|].
  pose proof (Forall_inv H) as (Hp & He). cbn in Hp, He.
  specialize (IH (Forall_inv_tail H)). pose proof (prime_ge_2 _ Hp).
  assert (1 <= p ^ e) by (pose proof (Z.pow_pos_nonneg p e); lia). nia.
Qed.

(* what the loop leaves for N > 0 run up to sqrt N: the factorisation found so far and a cofactor n'
   that is 1 or a prime above every prime found *)
Lemma pfm_loop_final N n' l :
  0 < N -> pfm_loop (Z.to_nat (Z.sqrt N)) 2 (Z.sqrt N) N [] = (n', l) ->
  Forall (fun pe : Z * Z => prime (fst pe) /\ 1 <= snd pe) l /\ increasing (map fst l) /\
  prod_pe l * n' = N /\ (n' = 1 \/ prime n' /\ Forall (fun pe => fst pe < n') l).
Proof.
  intros HN E. set (limit := Z.sqrt N) in *.
  assert (Hfuel : limit + 2 <= 2 + Z.of_nat (Z.to_nat limit)).
  { rewrite Z2Nat.id by apply Z.sqrt_nonneg. lia. }
  destruct (pfm_loop_spec N limit _ 2 N [] ltac:(lia) (pf_inv_init N HN) Hfuel n' l E)
    as (p' & (H1 & H2 & H3 & H4 & H5 & H6) & Hr).
  split; [assumption|]. split; [assumption|]. split; [assumption|].
  destruct (Z.eq_dec n' 1) as [|Hn1]; [left; assumption|right].
  destruct Hr as [Hr|Hr]; [contradiction|].
  pose proof (prod_pe_pos l H4) as Hpos.
  assert (HnN : n' <= N) by nia.
  assert (Hge : p' <= n').
  { destruct (Z.le_gt_cases p' n'); [assumption|exfalso]. apply (H3 n'); [lia|apply Z.divide_refl]. }
  split.
  - apply no_small_divisor_prime; [lia|]. intros e He Hee. apply H3.
    assert (e <= limit) by (apply Z.sqrt_le_square; lia). lia.
  - eapply Forall_impl; [|exact H5]. cbn. intros; lia.
Qed.

Theorem factorisation_correct n :
  n <> 0 -> Z.sqrt (Z.abs n) <= UINT_MAX ->
  exists l, nt_prime_factor_multiplicities n = Ok l /\ is_factorisation n l.
Proof.
  intros Hn Hlim. unfold nt_prime_factor_multiplicities, sieve_limit.
  destruct (n =? 0) eqn:E0; [lia|].
  destruct (UINT_MAX <? Z.sqrt (Z.abs n)) eqn:E1; [lia|]. cbn [bind].
  destruct (pfm_loop _ 2 _ (Z.abs n) []) as [n' l] eqn:E.
  destruct (pfm_loop_final (Z.abs n) n' l ltac:(lia) E) as (H1 & H2 & H3 & [->|(Hp & Hall)]).
  - exists l. split; [reflexivity|]. repeat split; [assumption..|lia].
  - assert (n' <> 1) by (pose proof (prime_ge_2 _ Hp); lia).
    destruct (n' =? 1) eqn:E2; [lia|]. rewrite map_insert_last by assumption.
    exists (l ++ [(n', 1)]). split; [reflexivity|]. split; [|split].
    + apply Forall_app. split; [assumption|]. constructor; [|constructor]. cbn. split; [assumption|lia].
    + rewrite map_app. cbn [map fst]. apply increasing_snoc; [assumption|].
      rewrite Forall_map. exact Hall.
    + rewrite prod_pe_app. unfold prod_pe at 2. cbn [fold_right fst snd]. rewrite <- H3, Z.pow_1_r. ring.
Qed.

Theorem factorisation_exceptions n :
  (n = 0 -> nt_prime_factor_multiplicities n = Ok []) /\
  (n <> 0 -> UINT_MAX < Z.sqrt (Z.abs n) -> nt_prime_factor_multiplicities n = ErrExn EXN_SYMENGINE).
Proof.
  unfold nt_prime_factor_multiplicities, sieve_limit. split.
  - intros ->. reflexivity.
  - intros Hn Hb. destruct (n =? 0) eqn:E; [lia|].
    destruct (UINT_MAX <? Z.sqrt (Z.abs n)) eqn:E1; [reflexivity|lia].
Qed.
