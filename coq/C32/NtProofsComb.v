(* C32 -- proofs: factorial, binomial coefficients (including negative upper argument),
   Fibonacci and Lucas numbers (2x2 matrix powers by repeated squaring). *)
From SE Require Import C32.NtSpec.
From Coq Require Import Lia ZifyBool.
Local Open Scope Z_scope.

Lemma zfact_pos k : 0 < zfact k.
Proof. induction k; cbn [zfact]; lia. Qed.

Lemma fac_loop_spec : forall cnt k,
  fac_loop cnt (Z.of_nat (S k)) (zfact k) = zfact (k + cnt).
Proof.
  induction cnt as [|c IH]; intros k; cbn [fac_loop].
  - rewrite Nat.add_0_r. reflexivity.
  - replace (Z.of_nat (S k) + 1) with (Z.of_nat (S (S k))) by lia.
    change (zfact k * Z.of_nat (S k)) with (zfact (S k)).
    rewrite IH. f_equal. lia.
Qed.

Theorem factorial_correct n : 0 <= n -> nt_factorial n = zfact (Z.to_nat n).
Proof.
  intros Hn. unfold nt_factorial, mp_fac.
  destruct (Z.eq_dec n 0) as [->|Hn0]; [reflexivity|].
  change 2 with (Z.of_nat 2). change 1 with (zfact 1) at 2.
  rewrite fac_loop_spec. f_equal. lia.
Qed.

Lemma ffact_shift y k : ffact (y + 1) (S k) = (y + 1) * ffact y k.
Proof.
  induction k as [|k IH].
  - cbn [ffact]. change (Z.of_nat 0) with 0. ring.
  - change (ffact (y + 1) (S (S k))) with (ffact (y + 1) (S k) * (y + 1 - Z.of_nat (S k))).
    rewrite IH. cbn [ffact]. rewrite Nat2Z.inj_succ. ring.
Qed.

Lemma ffact_diff y k : ffact (y + 1) (S k) = ffact y (S k) + Z.of_nat (S k) * ffact y k.
Proof. rewrite ffact_shift. cbn [ffact]. rewrite Nat2Z.inj_succ. ring. Qed.

Lemma ffact_0 k : ffact 0 (S k) = 0.
Proof.
  induction k as [|k IH]; [reflexivity|].
  change (ffact 0 (S (S k))) with (ffact 0 (S k) * (0 - Z.of_nat (S k))).
  rewrite IH. reflexivity.
Qed.

(* the product of k consecutive integers is divisible by k! *)
Lemma zfact_divides_ffact : forall k y, (zfact k | ffact y k).
Proof.
  induction k as [|k IH]; intros y.
  - cbn. apply Z.divide_1_l.
  - assert (Hstep : forall z, (zfact (S k) | Z.of_nat (S k) * ffact z k)).
    { intros z. destruct (IH z) as (c & Hc). exists c. rewrite Hc. cbn [zfact]. ring. }
    (* upwards and downwards from y = 0 by ffact (z + 1) (S k) = ffact z (S k) + (S k) * ffact z k *)
    pattern y. apply Z.peano_ind.
    + rewrite ffact_0. apply Z.divide_0_r.
    + intros z IHz. unfold Z.succ. rewrite ffact_diff. apply Z.divide_add_r; [exact IHz|apply Hstep].
    + intros z IHz. pose proof (ffact_diff (Z.pred z) k) as Hd.
      replace (Z.pred z + 1) with z in Hd by lia.
      replace (ffact (Z.pred z) (S k)) with (ffact z (S k) - Z.of_nat (S k) * ffact (Z.pred z) k) by lia.
      apply Z.divide_sub_r; [exact IHz|apply Hstep].
Qed.

Lemma bin_loop_spec : forall cnt j x res,
  res * zfact j = ffact (x + Z.of_nat j) j ->
  bin_loop cnt (Z.of_nat (S j)) x res * zfact (j + cnt)
  = ffact (x + Z.of_nat (j + cnt)) (j + cnt).
Proof.
  induction cnt as [|c IH]; intros j x res Hinv; cbn [bin_loop].
  - rewrite Nat.add_0_r. exact Hinv.
  - replace (Z.of_nat (S j) + 1) with (Z.of_nat (S (S j))) by lia.
    replace (j + S c)%nat with (S j + c)%nat by lia.
    apply IH.
    (* exactness of the division by i = j + 1 *)
    destruct (zfact_divides_ffact (S j) (x + Z.of_nat (S j))) as (q & Hq).
    pose proof (ffact_shift (x + Z.of_nat j) j) as Hs.
    replace (x + Z.of_nat j + 1) with (x + Z.of_nat (S j)) in Hs by lia.
    pose proof (zfact_pos j) as Hp.
    assert (Hmul : res * (x + Z.of_nat (S j)) = q * Z.of_nat (S j)).
    { apply (Z.mul_cancel_r _ _ (zfact j)); [lia|].
      transitivity (ffact (x + Z.of_nat (S j)) (S j)).
      - rewrite Hs, <- Hinv. ring.
      - rewrite Hq. cbn [zfact]. ring. }
    rewrite Hmul, Z.quot_mul by lia. rewrite Hq. reflexivity.
Qed.

(* binomial(n, k) k! = n (n-1) ... (n-k+1) for every integer n *)
Theorem binomial_correct n k :
  0 <= k -> nt_binomial n k * zfact (Z.to_nat k) = ffact n (Z.to_nat k).
Proof.
  intros Hk. unfold nt_binomial, mp_bin.
  pose proof (bin_loop_spec (Z.to_nat k) 0 (n - k) 1) as H.
  cbn [Nat.add] in H. change (Z.of_nat 1) with 1 in H.
  rewrite H by reflexivity. f_equal. lia.
Qed.

Lemma fib_SS n : fib (S (S n)) = fib n + fib (S n).
Proof. unfold fib. cbn [fib_pair]. destruct (fib_pair n) as [a b]. reflexivity. Qed.
Lemma lucas_SS n : lucas (S (S n)) = lucas n + lucas (S n).
Proof. unfold lucas. cbn [luc_pair]. destruct (luc_pair n) as [a b]. reflexivity. Qed.

Lemma mat_eq (a b c d a' b' c' d' : Z) :
  a = a' -> b = b' -> c = c' -> d = d' -> (a, b, c, d) = (a', b', c', d').
Proof. intros; subst; reflexivity. Qed.

Lemma mmul_assoc x y z : mmul (mmul x y) z = mmul x (mmul y z).
Proof.
  destruct x as [[[a b] c] d], y as [[[e f] g] h], z as [[[i j] k] l].
  unfold mmul. apply mat_eq; ring.
Qed.
Lemma mmul_id_l x : mmul mid x = x.
Proof. destruct x as [[[a b] c] d]. unfold mmul, mid. apply mat_eq; ring. Qed.
Lemma mmul_id_r x : mmul x mid = x.
Proof. destruct x as [[[a b] c] d]. unfold mmul, mid. apply mat_eq; ring. Qed.

Fixpoint mpow_nat (x : mat) (n : nat) : mat :=
  match n with O => mid | S n' => mmul (mpow_nat x n') x end.

Lemma mpow_nat_add x a b : mpow_nat x (a + b) = mmul (mpow_nat x a) (mpow_nat x b).
Proof.
  induction b as [|b IH].
  - rewrite Nat.add_0_r. cbn. rewrite mmul_id_r. reflexivity.
  - replace (a + S b)%nat with (S (a + b)) by lia. cbn [mpow_nat].
    rewrite IH, mmul_assoc. reflexivity.
Qed.

Lemma mpow_pos_nat x p : mpow_pos x p = mpow_nat x (Pos.to_nat p).
Proof.
  induction p as [p IH|p IH|]; cbn [mpow_pos].
  - rewrite IH, Pos2Nat.inj_xI. cbn [mpow_nat].
    replace (2 * Pos.to_nat p)%nat with (Pos.to_nat p + Pos.to_nat p)%nat by lia.
    rewrite mpow_nat_add. reflexivity.
  - rewrite IH, Pos2Nat.inj_xO.
    replace (2 * Pos.to_nat p)%nat with (Pos.to_nat p + Pos.to_nat p)%nat by lia.
    rewrite mpow_nat_add. reflexivity.
  - change (Pos.to_nat 1) with 1%nat. cbn [mpow_nat]. rewrite mmul_id_l. reflexivity.
Qed.

Lemma mpow_correct x n : 0 <= n -> mpow x n = mpow_nat x (Z.to_nat n).
Proof.
  intros Hn. destruct n as [|p|p]; [reflexivity| |lia].
  cbn [mpow]. rewrite mpow_pos_nat. reflexivity.
Qed.

Lemma fib_matrix_nat n :
  mpow_nat (1, 1, 1, 0) n = (fib (S n), fib n, fib n, fib (S n) - fib n).
Proof.
  induction n as [|n IH].
  - reflexivity.
  - cbn [mpow_nat]. rewrite IH. unfold mmul. rewrite (fib_SS n). apply mat_eq; ring.
Qed.

Lemma lucas_fib n : lucas n = 2 * fib (S n) - fib n /\ lucas (S n) = 2 * fib (S (S n)) - fib (S n).
Proof.
  induction n as [|n [IH1 IH2]].
  - split; reflexivity.
  - split; [exact IH2|]. rewrite lucas_SS, IH1, IH2, (fib_SS (S n)), (fib_SS n). ring.
Qed.

Theorem fibonacci_lucas_correct n :
  0 <= n ->
  nt_fibonacci n = fib (Z.to_nat n) /\
  nt_fibonacci2 n = (fib (Z.to_nat n), fib (S (Z.to_nat n)) - fib (Z.to_nat n)) /\
  nt_lucas n = lucas (Z.to_nat n) /\
  (1 <= n -> nt_lucas2 n = Ok (lucas (Z.to_nat n), lucas (Z.to_nat (n - 1)))) /\
  (n = 0 -> nt_lucas2 n = Ok (2, -1)).
Proof.
  intros Hn.
  unfold nt_fibonacci, nt_fibonacci2, nt_lucas, nt_lucas2, mp_fib, mp_fib2, mp_lucnum, mp_lucnum2,
    fib_matrix, luc_matrix.
  rewrite mpow_correct, fib_matrix_nat by assumption.
  split; [reflexivity|]. split; [reflexivity|]. split; [|split].
  - unfold mmul. rewrite (proj1 (lucas_fib (Z.to_nat n))). ring.
  - intros H1. destruct (n =? 0) eqn:E; [lia|].
    rewrite mpow_correct, fib_matrix_nat by lia. unfold mmul.
    replace (Z.to_nat n) with (S (Z.to_nat (n - 1))) by lia.
    set (k := Z.to_nat (n - 1)).
    rewrite (proj1 (lucas_fib (S k))), (proj1 (lucas_fib k)), (fib_SS k). f_equal. f_equal; ring.
  - intros ->. reflexivity.
Qed.
