From SE Require Import C15.CSpec.
Local Open Scope N_scope.
(* without the guard the statement is false: 3/Piecewise((1, x < 0), (2, True)) is printed
   `3/((x < 0) ? (1) : (2))`, an integer division (gcc: 1 instead of 1.5 at x = 1; case
   `(div (i 3) (pw (i 1) (lt x (i 0)) (i 2) true))` replayed on the library) *)
Theorem C15_no_int_div_refuted : exists (cf : cfg) (e : expr) (t : cexp),
  ctree cf e = Ok t /\ no_int_div t = false.
Proof.
  exists {| c99 := true; fl := false |}.
  exists (EMul (NInt 3) [(EPw [(ENum (NInt 1), EF2 TC_StrictLessThan (ESym [120]) (ENum (NInt 0)));
                               (ENum (NInt 2), EBool true)], ENum (NInt (-1)))]).
  eexists. split; vm_compute; reflexivity.
Qed.
Print Assumptions C15_no_int_div_refuted.
