(* C15 -- value of the emitted C over an arbitrary field (partial: the two delicate nodes).
   [ceval] interprets a tree of C expressions in any field F: + - * / unary minus and parentheses as the
   field operations, everything else (literals, identifiers, calls, relational and logical operators,
   ?:) by arbitrary functions.  The tree surgeries with which the model renders StrPrinter's string
   juxtapositions ("c*" ++ text, "-" ++ text, text.substr(1) after a '-') preserve the value
   ([graft_val], [neg_graft_val] on every tree, [strip_neg_val] on well-parenthesised products), hence
     print_add_val : the tree printed for a guarded Add evaluates to
                     coefficient + sum over the terms in printing order of (coefficient * key),
     print_mul_val : the tree printed for a Mul evaluates to
                     (+-) product of coefficient and numerator factors / product of denominator factors,
   relative to the values V of the operands' own texts (W for printed powers, NV for printed numbers).
   Not proved here: the recursive assembly into one statement  ceval (ctree e) = eval e  with a recursive
   ideal semantics (needs a fuelled eval over the nested expression type and the tables of function
   meanings).  Uses no axioms: the field is a Section variable. *)
From SE Require Export C15.CModelProofs.
From Coq Require Import Field.
Local Open Scope N_scope.

Section Sound.
  (* an arbitrary field *)
  Variable F : Type.
  Variables (f0 f1 : F) (fadd fmul fsub : F -> F -> F) (fopp : F -> F) (fdiv : F -> F -> F) (finv : F -> F).
  Hypothesis Fth : field_theory f0 f1 fadd fmul fsub fopp fdiv finv (@eq F).
  Add Field Ffield : Fth.
  Notation "a + b" := (fadd a b). Notation "a * b" := (fmul a b). Notation "a - b" := (fsub a b).
  Notation "a / b" := (fdiv a b). Notation "- a" := (fopp a).

  (* everything that is not + - * / unary minus or a parenthesis is interpreted abstractly *)
  Variable vint : N -> F.
  Variable vflt : N -> F.
  Variable vid : list N -> F.
  Variable vnot : F -> F.
  Variable vbin : binop -> F -> F -> F.
  Variable vcond : F -> F -> F -> F.
  Variable vcall : list N -> F -> F.
  Variable vcall0 : list N -> F.

  Fixpoint ceval (t : cexp) : F :=
    match t with
    | CInt n => vint n
    | CFlt _ b => vflt b
    | CId s => vid s
    | CNeg a => - ceval a
    | CNot a => vnot (ceval a)
    | CBin o a b =>
        match o with
        | BAdd => ceval a + ceval b
        | BSub => ceval a - ceval b
        | BMul => ceval a * ceval b
        | BDiv => ceval a / ceval b
        | _ => vbin o (ceval a) (ceval b)
        end
    | CCond _ c a b => vcond (ceval c) (ceval a) (ceval b)
    | CCall f a => vcall f (ceval a)
    | CCall0 f => vcall0 f
    | CParen _ a => ceval a
    end.

  (* product of a non-empty list, left to right; the printers write the integer 1 for an empty one *)
  Definition prodl (l : list F) : F :=
    match l with
    | [] => vint 1
    | f :: r => fold_left fmul r f
    end.

  (* Joining at the left end of a chain of operators of the
     same level is reassociation, so [graft] and [neg_graft] need no side condition; removing a
     leading '-' does: the minus must govern the whole product it is stripped from. *)
  Lemma graft_val : forall o a k, o = BAdd \/ o = BMul -> ceval (graft o a k) = ceval (CBin o a k).
  Proof.
    intros o a k Ho. induction k as [k N|o' l r E IH] using (spine_ind o).
    - rewrite (graft_stop _ _ _ N). reflexivity.
    - rewrite (graft_go _ _ _ _ _ E).
      destruct Ho as [-> | ->]; destruct o'; try discriminate E; cbn [ceval] in *; rewrite IH;
        rewrite ?(Fdiv_def Fth); ring.
  Qed.

  Lemma neg_graft_val : forall k, ceval (neg_graft k) = - ceval k.
  Proof.
    induction k as [k N|o' l r E IH] using (spine_ind BMul).
    - rewrite (neg_graft_stop _ N). reflexivity.
    - rewrite (neg_graft_go _ _ _ E). destruct o'; try discriminate E; cbn [ceval]; rewrite IH;
        rewrite ?(Fdiv_def Fth); ring.
  Qed.

  Lemma strip_neg_val : forall t t', good 13 t -> strip_neg t = Some t' -> ceval t = - ceval t'.
  Proof.
    intros t t' G H. revert t t' H G.
    apply (strip_neg_ind (fun t t' => good 13 t -> ceval t = - ceval t'));
      [intros a|intros o l l' r E IH|intros nl c c' a b E IH]; intros [W L].
    - reflexivity.
    - apply wp_bin in W as (W1 & _ & L1 & _). simpl in L.
      destruct o; simpl in L; try lia; cbn [ceval]; rewrite IH by (split; auto);
        rewrite ?(Fdiv_def Fth); ring.
    - simpl in L. unfold PREC_COND in L. lia.
  Qed.

  Lemma paren_if_val : forall b t, ceval (paren_if b t) = ceval t.
  Proof. destruct b; reflexivity. Qed.

  (* a term whose text begins with '-' is joined by " - " to the text without it *)
  Lemma graft_sub_strip_val : forall t t' a, good 12 t -> strip_neg t = Some t' ->
    ceval (graft BSub a t') = ceval a + ceval t.
  Proof.
    intros t t' a G H. revert t t' H a G.
    apply (strip_neg_ind (fun t t' => forall a, good 12 t -> ceval (graft BSub a t') = ceval a + ceval t));
      [intros x|intros o l l' r E IH|intros nl c c' x y E IH]; intros a [W L].
    - simpl in W. rewrite !andb_true_iff, N.leb_le in W. unfold PREC_UNARY in W.
      rewrite graft_stop by (simpl; lia). cbn [ceval]. ring.
    - (* a sum is entered by the graft; a product is joined whole, its minus sign governing all of it *)
      assert (H0 : strip_neg (CBin o l r) = Some (CBin o l' r)) by (simpl; rewrite E; reflexivity).
      pose proof W as W0. apply wp_bin in W as (W1 & _ & L1 & _). simpl in L.
      destruct o; simpl in L; try lia.
      + rewrite graft_go by reflexivity. cbn [ceval]. rewrite (IH a) by (split; auto). ring.
      + rewrite graft_go by reflexivity. cbn [ceval]. rewrite (IH a) by (split; auto). ring.
      + rewrite graft_stop by discriminate. rewrite (strip_neg_val _ _ (conj W0 (N.le_refl 13)) H0). cbn [ceval]. ring.
      + rewrite graft_stop by discriminate. rewrite (strip_neg_val _ _ (conj W0 (N.le_refl 13)) H0). cbn [ceval]. ring.
    - simpl in L. unfold PREC_COND in L. lia.
  Qed.

  Lemma add_join_val : forall a t, good 12 t -> ceval (add_join (Some a) t) = ceval a + ceval t.
  Proof.
    intros a t G. unfold add_join. destruct (strip_neg t) as [t'|] eqn:E.
    - exact (graft_sub_strip_val _ _ a G E).
    - apply graft_val. left. reflexivity.
  Qed.

  Lemma chain_mul_val : forall r f, ceval (chain BMul f r) = prodl (List.map ceval (f :: r)).
  Proof.
    unfold chain. induction r as [|x r IH]; intros f; [reflexivity|].
    cbn [fold_left]. rewrite IH. cbn [List.map prodl fold_left]. rewrite graft_val by (right; reflexivity). reflexivity.
  Qed.

  Lemma signed_val : forall b k, ceval (signed b k) = if b then - ceval k else ceval k.
  Proof. destruct b; [apply neg_graft_val | reflexivity]. Qed.

  Lemma numer_val : forall l, ceval (numer_of l) = prodl (List.map ceval l).
  Proof. intros [|f r]; [reflexivity | apply chain_mul_val]. Qed.

  Lemma over_val : forall s ds,
    ceval (over s ds) = match List.map ceval ds with [] => ceval s | dv => ceval s / prodl dv end.
  Proof.
    intros s [|d1 [|d2 r]]; try reflexivity. cbn [over ceval]. rewrite chain_mul_val. reflexivity.
  Qed.

  Section NodeVal.
    Variable cf : cfg.
    Variable pr : expr -> res cexp.
    Variable V : expr -> F.              (* the value of the text printed for an operand *)
    Hypothesis Hpr : forall x t, pr x = Ok t -> ceval t = V x.
    Variable NV : number -> F.           (* the value of the text printed for a number *)
    Hypothesis Hnum : forall v t, print_num cf v = Ok t -> ceval t = NV v.
    Variable W : expr -> expr -> F.      (* the value of the text printed for a power a**b *)
    Hypothesis Hpow : forall a b t, print_pow cf pr a b = Ok t -> ceval t = W a b.

    Definition term_val (k : expr) (v : number) : F :=
      if num_is v 1 then V k else if num_is v (-1) then - V k else NV v * V k.

    Lemma plt_val : forall x p t, plt pr x p = Ok t -> ceval t = V x.
    Proof. intros x p t H. apply plt_Ok in H as (u & E & ->). rewrite paren_if_val. auto. Qed.
    Lemma plt_num_val : forall v p t, plt_num cf v p = Ok t -> ceval t = NV v.
    Proof. intros v p t H. apply plt_num_Ok in H as (u & E & ->). rewrite paren_if_val. auto. Qed.

    Lemma add_term_val : forall k v t, add_term cf pr k v = Ok t -> ceval t = term_val k v.
    Proof.
      intros k v t H. unfold add_term in H. unfold term_val.
      destruct (num_is v 1); [exact (plt_val _ _ _ H)|].
      destruct (num_is v (-1)).
      - apply bind_Ok in H as (u & E & [= <-]). rewrite neg_graft_val, (plt_val _ _ _ E). reflexivity.
      - apply bind_Ok in H as (c & E & H). apply bind_Ok in H as (u & E' & [= <-]).
        rewrite graft_val by (right; reflexivity). cbn [ceval].
        rewrite (plt_num_val _ _ _ E), (plt_val _ _ _ E'). reflexivity.
    Qed.

    Definition acc_val (acc : option cexp) : F := match acc with Some a => ceval a | None => f0 end.

    (* the guard enters here only: each term must be a sum-level operand for " - " to be right *)
    Lemma add_terms_val : forall l acc t, add_terms cf pr acc l = Ok t ->
      (forall k v u, In (k, v) l -> add_term cf pr k v = Ok u -> good 12 u) ->
      ceval t = fold_left (fun s p => s + term_val (fst p) (snd p)) l (acc_val acc).
    Proof.
      refine (add_terms_ind cf pr _ _ _).
      - reflexivity.
      - intros acc k v r u t E IH Hl. rewrite IH by (intros k' v' u' Hp; apply Hl; right; exact Hp).
        cbn [fold_left fst snd acc_val]. f_equal. rewrite <- (add_term_val _ _ _ E).
        destruct acc as [a|]; cbn [acc_val add_join].
        + apply add_join_val. exact (Hl k v u (or_introl eq_refl) E).
        + ring.
    Qed.

    (* VALUE OF A PRINTED SUM: coefficient + sum of the terms in printing order *)
    Theorem print_add_val : (forall x t, pr x = Ok t -> cguard x = true -> Inv x t) ->
      forall c d t, print_add cf pr c d = Ok t -> cguard (EAdd c d) = true ->
      ceval t = fold_left (fun s p => s + term_val (fst p) (snd p)) (pmap_of d)
                          (if num_is c 0 then f0 else NV c).
    Proof.
      intros IHpr c d t H G. pose proof (cguard_add c d G) as Hl.
      assert (Hu : forall k v u, In (k, v) (pmap_of d) -> add_term cf pr k v = Ok u -> good 12 u).
      { intros k v u Hp E. destruct (Hl _ Hp) as (Gk & _ & A). exact (add_term_inv cf pr IHpr _ _ _ E Gk A). }
      unfold print_add in H. destruct (num_is c 0).
      - exact (add_terms_val _ _ _ H Hu).
      - apply bind_Ok in H as (tc & E & H). rewrite (add_terms_val _ _ _ H Hu). cbn [acc_val].
        rewrite (Hnum _ _ E). reflexivity.
    Qed.

    (* values of the numerator and denominator factors of a product, in dictionary order *)
    Fixpoint num_vals (d : list (expr * expr)) : list F :=
      match d with
      | [] => []
      | (bs, ex) :: r =>
          match (if is_E bs then None else neg_rational_exp ex) with
          | Some _ => num_vals r
          | None => (if is_num_int ex 1 then V bs else W bs ex) :: num_vals r
          end
      end.
    Fixpoint den_vals (d : list (expr * expr)) : list F :=
      match d with
      | [] => []
      | (bs, ex) :: r =>
          match (if is_E bs then None else neg_rational_exp ex) with
          | Some nex => (if num_is nex 1 then V bs else W bs (ENum nex)) :: den_vals r
          | None => den_vals r
          end
      end.

    Lemma mul_factors_val : forall d ns ds, mul_factors cf pr d = Ok (ns, ds) ->
      List.map ceval ns = num_vals d /\ List.map ceval ds = den_vals d.
    Proof.
      refine (mul_factors_ind cf pr _ _ _).
      { split; reflexivity. }
      intros bs ex r u ns ds E [A B]. unfold print_factor in E. cbn [num_vals den_vals]. unfold den_exp in *.
      destruct (if is_E bs then None else neg_rational_exp ex) as [nex|]; cbn [List.map]; rewrite A, B; split; f_equal.
      - destruct (num_is nex 1); [exact (plt_val _ _ _ E) | exact (Hpow _ _ _ E)].
      - destruct (is_num_int ex 1); [exact (plt_val _ _ _ E) | exact (Hpow _ _ _ E)].
    Qed.

    (* VALUE OF A PRINTED PRODUCT: (+-) product of coefficient and numerator factors, divided by the
       product of the denominator factors when there are any.  Holds of every product, guarded or not. *)
    Theorem print_mul_val : forall c d t, print_mul cf pr c d = Ok t ->
      let cv := if num_is c (-1) || num_is c 1 then [] else [NV c] in
      let n := prodl (cv ++ num_vals d) in
      let s := if num_is c (-1) then - n else n in
      ceval t = match den_vals d with [] => s | dv => s / prodl dv end.
    Proof.
      intros c d t H. apply print_mul_Ok in H as (cl & ns & ds & Hcl & E & ->).
      destruct (mul_factors_val _ _ _ E) as [VN VD].
      assert (Vcl : List.map ceval cl = if num_is c (-1) || num_is c 1 then [] else [NV c]).
      { destruct (num_is c (-1) || num_is c 1); [subst; reflexivity|].
        destruct Hcl as (u & Eu & ->). cbn [List.map]. rewrite (plt_num_val _ _ _ Eu). reflexivity. }
      cbv zeta. rewrite over_val, VD, signed_val, numer_val, map_app, Vcl, VN. reflexivity.
    Qed.
  End NodeVal.

  (* on the printer itself: operands are printed by the printer with less fuel *)
  Definition tval (cf : cfg) (f : nat) (x : expr) : F :=
    match ctree_fuel cf f x with Ok t => ceval t | _ => f0 end.
  Definition nval (cf : cfg) (v : number) : F :=
    match print_num cf v with Ok t => ceval t | _ => f0 end.
  Definition pval (cf : cfg) (f : nat) (a b : expr) : F :=
    match print_pow cf (ctree_fuel cf f) a b with Ok t => ceval t | _ => f0 end.

  Theorem ctree_add_val : forall cf f c d t,
    ctree_fuel cf (S f) (EAdd c d) = Ok t -> cguard (EAdd c d) = true ->
    ceval t = fold_left (fun s p => s + term_val (tval cf f) (nval cf) (fst p) (snd p)) (pmap_of d)
                        (if num_is c 0 then f0 else nval cf c).
  Proof.
    intros cf f c d t H G. cbn [ctree_fuel print_node] in H.
    apply (print_add_val cf (ctree_fuel cf f)); auto.
    - intros x t0 Hx. unfold tval. rewrite Hx. reflexivity.
    - intros v t0 Hv. unfold nval. rewrite Hv. reflexivity.
    - intros x t0 Hx Gx. exact (ctree_fuel_inv cf f x t0 Hx Gx).
  Qed.

  Theorem ctree_mul_val : forall cf f c d t,
    ctree_fuel cf (S f) (EMul c d) = Ok t -> cguard (EMul c d) = true ->
    let cv := if num_is c (-1) || num_is c 1 then [] else [nval cf c] in
    let n := prodl (cv ++ num_vals (tval cf f) (pval cf f) d) in
    let s := if num_is c (-1) then - n else n in
    ceval t = match den_vals (tval cf f) (pval cf f) d with [] => s | dv => s / prodl dv end.
  Proof.
    intros cf f c d t H _. cbn [ctree_fuel print_node] in H.
    apply (print_mul_val cf (ctree_fuel cf f)); auto.
    - intros x t0 Hx. unfold tval. rewrite Hx. reflexivity.
    - intros v t0 Hv. unfold nval. rewrite Hv. reflexivity.
    - intros a b t0 Hp. unfold pval. rewrite Hp. reflexivity.
  Qed.

  (* the quotient 1/a printed for a**(-1) *)
  Theorem ctree_inv_val : forall cf f a t,
    ctree_fuel cf (S f) (EPow a (ENum (NInt (-1)))) = Ok t -> is_E a = false ->
    ceval t = ceval (int_lit cf 1) / tval cf f a.
  Proof.
    intros cf f a t H HE. cbn [ctree_fuel print_node] in H. unfold print_pow in H. rewrite HE in H.
    cbn [is_num_int num_is Z.eqb Pos.eqb] in H. apply bind_Ok in H as (ta & E & [= <-]).
    apply ple_Ok in E as (u & E & ->). cbn [ceval]. rewrite paren_if_val. unfold tval. rewrite E. reflexivity.
  Qed.
End Sound.
