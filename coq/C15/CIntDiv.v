(* C15 -- literal typing: no integer division in the emitted C.
   In double precision the printers write Integers as C int constants, so some printed expressions
   are int-typed ([int_typed]); [ityp] (CSpec.v) is an upper bound of that, read off the expression.
   Theorem ctree_no_int_div: when no divisor of the expression is possibly int-typed ([nguard]), no
   division of the emitted tree has two int-typed operands.  (Rationals are always printed with
   floating literals: print_num prints p.0/q.0.)  Axiom-free. *)
From SE Require Export C15.CPrint.
Local Open Scope N_scope.
Local Open Scope res_scope.

Definition nid (t : cexp) : Prop := no_int_div t = true.
(* a tree that no context can turn into an integer division: floating literals, calls, identifiers *)
Definition flt (t : cexp) : Prop := nid t /\ int_typed t = false.

(* what is carried through the printer *)
Definition Inv2 (cf : cfg) (e : expr) (t : cexp) : Prop :=
  no_int_div t = true /\ (int_typed t = true -> ityp cf e = true).

Lemma flt_any t (b : bool) : flt t -> nid t /\ (int_typed t = true -> b = true).
Proof. intros [A B]. split; [exact A | rewrite B; discriminate]. Qed.

Lemma flt_lit_nid : forall cf neg bits, flt (flt_lit cf neg bits).
Proof. intros. unfold flt_lit. destruct neg; split; reflexivity. Qed.
Lemma lit_of_Z_nid : forall cf z, flt (lit_of_Z cf z).
Proof. intros. unfold lit_of_Z. destruct (dbl_of_Z z). apply flt_lit_nid. Qed.
Lemma int_lit_nid : forall cf z, nid (int_lit cf z) /\ (int_typed (int_lit cf z) = true -> fl cf = false).
Proof.
  intros. unfold int_lit. destruct (lit_of_Z_nid cf z) as [A B].
  destruct (fl cf); simpl; [|destruct (negb (fits_slong z))]; try (split; [exact A | rewrite B; discriminate]).
  destruct z; split; reflexivity.
Qed.

Lemma print_num_inv2 : forall cf n t, print_num cf n = Ok t ->
  nid t /\ (int_typed t = true -> int_num cf n = true).
Proof.
  intros cf n t H. destruct n; simpl in H; try discriminate.
  - injection H as <-. destruct (int_lit_nid cf z) as [A B]. split; [exact A|]. intros I. simpl. rewrite (B I). reflexivity.
  - injection H as <-. destruct (lit_of_Z_nid cf n) as [A B]. destruct (lit_of_Z_nid cf (Zpos d)) as [A' B'].
    unfold nid in *. cbn [no_int_div int_typed]. rewrite A, A', B. split; [reflexivity | discriminate].
  - injection H as <-. apply flt_any, flt_lit_nid.
  - destruct (dir <? 0)%Z; [|destruct (0 <? dir)%Z; [|discriminate]]; injection H as <-; split; (reflexivity || discriminate).
  - injection H as <-. split; [reflexivity | discriminate].
Qed.

Lemma paren_if_nid : forall b t, no_int_div (paren_if b t) = no_int_div t /\ int_typed (paren_if b t) = int_typed t.
Proof. destruct b; split; reflexivity. Qed.

(* the arithmetic operators + - * / are those of the two highest binary levels *)
Definition arith (o : binop) : bool := 12 <=? bprec o.

Lemma int_typed_arith o a b : arith o = true -> int_typed (CBin o a b) = int_typed a && int_typed b.
Proof. destruct o; (discriminate || reflexivity). Qed.
Lemma arith_bprec o o' : bprec o' = bprec o -> arith o = true -> arith o' = true.
Proof. unfold arith. intros ->. auto. Qed.

Lemma int_typed_graft o a k : arith o = true -> int_typed (graft o a k) = int_typed a && int_typed k.
Proof.
  intros Ho. induction k as [k N|o' l r E IH] using (spine_ind o).
  - rewrite (graft_stop _ _ _ N). exact (int_typed_arith _ _ _ Ho).
  - rewrite (graft_go _ _ _ _ _ E), !(int_typed_arith o') by exact (arith_bprec _ _ E Ho).
    rewrite IH. symmetry. apply andb_assoc.
Qed.

(* a '/' met on the spine gets a longer left operand: int-typed only if the old one was *)
Lemma nid_graft o a k : arith o = true -> o <> BDiv -> nid a -> nid k -> nid (graft o a k).
Proof.
  intros Ho Hd Ha. induction k as [k N|o' l r E IH] using (spine_ind o); intros Hk; unfold nid in *.
  - rewrite (graft_stop _ _ _ N). cbn [no_int_div]. rewrite Ha, Hk. destruct o; try reflexivity. congruence.
  - rewrite (graft_go _ _ _ _ _ E). cbn [no_int_div] in *. rewrite !andb_true_iff in Hk. destruct Hk as [[Hl Hr] Hq].
    rewrite (IH Hl), Hr. destruct o'; try reflexivity. rewrite (int_typed_graft _ _ _ Ho).
    destruct (int_typed l), (int_typed r); try discriminate Hq; rewrite ?andb_false_r; reflexivity.
Qed.

Lemma neg_graft_nid : forall k, no_int_div (neg_graft k) = no_int_div k /\ int_typed (neg_graft k) = int_typed k.
Proof.
  induction k as [k N|o' l r E [A B]] using (spine_ind BMul).
  - rewrite (neg_graft_stop _ N). split; reflexivity.
  - rewrite (neg_graft_go _ _ _ E). cbn [no_int_div int_typed]. rewrite A, B. split; reflexivity.
Qed.

Lemma strip_neg_nid : forall t t', strip_neg t = Some t' ->
  no_int_div t' = no_int_div t /\ int_typed t' = int_typed t.
Proof.
  apply strip_neg_ind; [intros a|intros o l l' r E [A B]|intros nl c c' a b E [A B]].
  - split; reflexivity.
  - cbn [no_int_div int_typed]. rewrite A, B. split; reflexivity.
  - cbn [no_int_div int_typed]. rewrite A. split; reflexivity.
Qed.

Lemma chain_mul_nid : forall r f, nid f -> Forall nid r ->
  nid (chain BMul f r) /\ int_typed (chain BMul f r) = int_typed f && forallb int_typed r.
Proof.
  unfold chain. induction r as [|x r IH]; intros f Hf Hr; simpl; [rewrite andb_true_r; split; auto|].
  inversion Hr; subst. destruct (IH (graft BMul f x)) as [A B]; [apply nid_graft; auto; discriminate | assumption |].
  split; [exact A|]. rewrite B, int_typed_graft by reflexivity. symmetry. apply andb_assoc.
Qed.

Lemma signed_nid b k : no_int_div (signed b k) = no_int_div k /\ int_typed (signed b k) = int_typed k.
Proof. destruct b; [apply neg_graft_nid | split; reflexivity]. Qed.

Lemma numer_nid l : Forall nid l -> nid (numer_of l) /\ int_typed (numer_of l) = forallb int_typed l.
Proof. intros [|f r Hf Hr]; [split; reflexivity | exact (chain_mul_nid r f Hf Hr)]. Qed.

(* a quotient whose divisors are all floating *)
Lemma over_nid s ds : nid s -> Forall flt ds ->
  nid (over s ds) /\ (int_typed (over s ds) = true -> ds = [] /\ int_typed s = true).
Proof.
  intros Hs [|d1 r [N1 I1] Hr]; [auto|].
  assert (E : exists dv, over s (d1 :: r) = CBin BDiv s dv /\ flt dv).
  { destruct Hr as [|d2 r H2 Hr]; [exists d1; split; [reflexivity | split; assumption]|].
    eexists. split; [reflexivity|]. unfold flt, nid. cbn [no_int_div int_typed].
    destruct (chain_mul_nid (d2 :: r) d1 N1) as [A B]; [apply Forall_impl with (2 := Forall_cons _ H2 Hr); intros a [Q _]; exact Q|].
    rewrite B, I1. split; [exact A | reflexivity]. }
  destruct E as (dv & -> & Nd & Id). unfold nid in *. cbn [no_int_div int_typed]. rewrite Hs, Nd, Id, !andb_false_r.
  split; [reflexivity | discriminate].
Qed.

Lemma sign_tree_nid : forall cf ta, no_int_div ta = true -> no_int_div (sign_tree cf ta) = true /\ int_typed (sign_tree cf ta) = false.
Proof.
  intros cf ta W. unfold sign_tree.
  destruct (flt_lit_nid cf false 0) as [Z1 Z2].
  destruct (flt_lit_nid cf false 4607182418800017408) as [O1 O2].
  destruct (flt_lit_nid cf true 4607182418800017408) as [M1 M2].
  unfold nid in *. cbn [no_int_div int_typed]. rewrite W, Z1, O1, M1, Z2. split; reflexivity.
Qed.

Section Node2.
  Variable cf : cfg.
  Variable pr : expr -> res cexp.
  Hypothesis IHpr : forall x t, pr x = Ok t -> nguard cf x = true -> Inv2 cf x t.

  Lemma plt_inv2 : forall x p t, plt pr x p = Ok t -> nguard cf x = true -> Inv2 cf x t.
  Proof.
    intros x p t H G. apply plt_Ok in H as (u & E & ->). unfold Inv2.
    destruct (paren_if_nid (precedence x <? p) u) as [-> ->]. exact (IHpr _ _ E G).
  Qed.
  Lemma ple_inv2 : forall x p t, ple pr x p = Ok t -> nguard cf x = true -> Inv2 cf x t.
  Proof.
    intros x p t H G. apply ple_Ok in H as (u & E & ->). unfold Inv2.
    destruct (paren_if_nid (precedence x <=? p) u) as [-> ->]. exact (IHpr _ _ E G).
  Qed.
  Lemma plt_num_inv2 : forall v p t, plt_num cf v p = Ok t -> nid t.
  Proof.
    intros v p t H. apply plt_num_Ok in H as (u & E & ->). unfold nid.
    rewrite (proj1 (paren_if_nid _ u)). exact (proj1 (print_num_inv2 _ _ _ E)).
  Qed.

  (* any call of a math function on printed operands *)
  Lemma call1_flt : forall nm u tu, pr u = Ok tu -> nguard cf u = true -> flt (CCall nm tu).
  Proof. intros nm u tu E G. split; [exact (proj1 (IHpr _ _ E G)) | reflexivity]. Qed.
  Lemma call2_flt : forall nm a b ta tb, pr a = Ok ta -> nguard cf a = true -> pr b = Ok tb -> nguard cf b = true ->
    flt (CCall nm (CBin BComma ta tb)).
  Proof.
    intros nm a b ta tb Ea Ga Eb Gb. split; [|reflexivity]. unfold nid. cbn [no_int_div].
    rewrite (proj1 (IHpr _ _ Ea Ga)), (proj1 (IHpr _ _ Eb Gb)). reflexivity.
  Qed.

  Lemma print_pow_inv2 : forall a b t, print_pow cf pr a b = Ok t -> nguard cf (EPow a b) = true ->
    Inv2 cf (EPow a b) t.
  Proof.
    intros a b t H G. cbn [nguard] in G. rewrite !andb_true_iff in G. destruct G as [[Ga Gb] G3].
    unfold print_pow in H. unfold Inv2. cbn [ityp].
    destruct (is_E a).
    { apply bind_Ok in H as (tb & E & [= <-]). apply flt_any, (call1_flt _ _ _ E Gb). }
    destruct (is_num_int b (-1)).
    { apply bind_Ok in H as (ta & E & [= <-]). destruct (ple_inv2 _ _ _ E Ga) as [A B].
      simpl in G3. apply negb_true_iff in G3.
      assert (I : int_typed ta = false).
      { destruct (int_typed ta); [rewrite (B eq_refl) in G3; discriminate | reflexivity]. }
      cbn [no_int_div int_typed]. rewrite (proj1 (int_lit_nid cf 1)), A, I, !andb_false_r. split; [reflexivity | discriminate]. }
    destruct (is_rat b 1 2).
    { apply bind_Ok in H as (ta & E & [= <-]). apply flt_any, (call1_flt _ _ _ E Ga). }
    destruct (c99 cf && is_rat b 1 3).
    { apply bind_Ok in H as (ta & E & [= <-]). apply flt_any, (call1_flt _ _ _ E Ga). }
    apply bind_Ok in H as (ta & E & H). apply bind_Ok in H as (tb & E' & [= <-]).
    apply flt_any, (call2_flt _ _ _ _ _ E Ga E' Gb).
  Qed.

  (* a printed power is int-typed only if its base is possibly int-typed *)
  Lemma print_pow_ityp : forall a b t, print_pow cf pr a b = Ok t -> nguard cf (EPow a b) = true -> Inv2 cf a t.
  Proof.
    intros a b t H G. destruct (print_pow_inv2 _ _ _ H G) as [A B]. split; [exact A|].
    intros I. pose proof (B I) as Q. cbn [ityp] in Q. apply andb_true_iff in Q. exact (proj2 Q).
  Qed.

  Lemma add_term_inv2 : forall k v t, add_term cf pr k v = Ok t -> nguard cf k = true -> Inv2 cf k t.
  Proof.
    intros k v t H G. unfold add_term in H.
    destruct (num_is v 1); [exact (plt_inv2 _ _ _ H G)|].
    destruct (num_is v (-1)).
    - apply bind_Ok in H as (u & E & [= <-]). unfold Inv2.
      destruct (neg_graft_nid u) as [-> ->]. exact (plt_inv2 _ _ _ E G).
    - apply bind_Ok in H as (c & E & H). apply bind_Ok in H as (u & E' & [= <-]).
      destruct (plt_inv2 _ _ _ E' G) as [A B].
      split; [apply nid_graft; [reflexivity | discriminate | exact (plt_num_inv2 _ _ _ E) | exact A]|].
      rewrite int_typed_graft by reflexivity. intros I. apply andb_true_iff in I. exact (B (proj2 I)).
  Qed.

  Definition acc_nid (acc : option cexp) : Prop := match acc with Some a => nid a | None => True end.
  Definition acc_int (acc : option cexp) : bool := match acc with Some a => int_typed a | None => true end.

  Lemma add_join_nid : forall acc t, acc_nid acc -> nid t ->
    nid (add_join acc t) /\ int_typed (add_join acc t) = acc_int acc && int_typed t.
  Proof.
    intros [a|] t Ha Ht; [|split; [exact Ht | reflexivity]]. cbn [acc_nid acc_int] in *. unfold add_join.
    destruct (strip_neg t) as [t'|] eqn:E.
    - destruct (strip_neg_nid _ _ E) as [S1 S2]. rewrite <- S2.
      split; [apply nid_graft; [reflexivity | discriminate | exact Ha | unfold nid; rewrite S1; exact Ht] | apply int_typed_graft; reflexivity].
    - split; [apply nid_graft; [reflexivity | discriminate | exact Ha | exact Ht] | apply int_typed_graft; reflexivity].
  Qed.

  (* a printed sum is int-typed only if its coefficient and all its terms are *)
  Lemma add_terms_inv2 : forall l acc t, add_terms cf pr acc l = Ok t -> acc_nid acc ->
    (forall p, In p l -> nguard cf (fst p) = true) ->
    nid t /\ (int_typed t = true -> (forall p, In p l -> ityp cf (fst p) = true) /\ acc_int acc = true).
  Proof.
    refine (add_terms_ind cf pr _ _ _).
    - intros a Ha _. split; [exact Ha|]. intros I. split; [intros p [] | exact I].
    - intros acc k v r u t E IH Ha Hl. destruct (add_term_inv2 _ _ _ E (Hl (k, v) (or_introl eq_refl))) as [A B].
      destruct (add_join_nid acc u Ha A) as [J1 J2].
      destruct (IH J1) as [R1 R2]; [intros p Hp; apply Hl; right; exact Hp|].
      split; [exact R1|]. intros I. destruct (R2 I) as [R3 R4]. cbn [acc_int] in R4. rewrite J2, andb_true_iff in R4.
      split; [|exact (proj1 R4)]. intros p [<-|Hp]; [exact (B (proj2 R4)) | exact (R3 p Hp)].
  Qed.

  Lemma print_add_inv2 : forall c d t, print_add cf pr c d = Ok t -> nguard cf (EAdd c d) = true -> Inv2 cf (EAdd c d) t.
  Proof.
    intros c d t H G. cbn [nguard] in G. rewrite forallb_forall in G.
    assert (Hl : forall p, In p (pmap_of d) -> nguard cf (fst p) = true).
    { intros p Hp. apply G, pmap_of_In, Hp. }
    unfold print_add in H.
    assert (R : nid t /\ (int_typed t = true ->
                  (forall p, In p (pmap_of d) -> ityp cf (fst p) = true) /\ (pmap_of d = [] -> int_num cf c = true))).
    { destruct (num_is c 0).
      - destruct (add_terms_inv2 _ _ _ H) as [A B]; [exact I | exact Hl|]. split; [exact A|].
        intros J. split; [exact (proj1 (B J))|]. intros Hd. rewrite Hd in H. discriminate.
      - apply bind_Ok in H as (tc & E & H). destruct (print_num_inv2 _ _ _ E) as [C1 C2].
        destruct (add_terms_inv2 _ _ _ H) as [A B]; [exact C1 | exact Hl|]. split; [exact A|].
        intros J. destruct (B J) as [B1 B2]. split; [exact B1 | intros _; exact (C2 B2)]. }
    destruct R as [A B]. split; [exact A|]. intros J. destruct (B J) as [B1 B2]. cbn [ityp].
    destruct d as [|p0 d0]; [apply B2; reflexivity|].
    pose proof (pmap_of_nonempty (p0 :: d0)) as NE.
    destruct (pmap_of (p0 :: d0)) as [|q qs] eqn:EQ; [exfalso; apply NE; [discriminate | reflexivity]|].
    apply existsb_exists. exists q. split; [apply pmap_of_In; rewrite EQ; left; reflexivity | apply B1; left; reflexivity].
  Qed.

  (* the exponent of a numerator factor is not -1 *)
  Lemma num_exp_not_m1 : forall ex, neg_rational_exp ex = None -> is_num_int ex (-1) = false.
  Proof.
    intros ex En. destruct ex; try reflexivity. destruct n; try reflexivity. simpl in *.
    destruct (z <? 0)%Z eqn:EZ; [discriminate|]. apply Z.eqb_neq. apply Z.ltb_ge in EZ. lia.
  Qed.

  (* a printed factor is its base, possibly in parentheses, or a printed power of it *)
  Lemma print_factor_fok : forall bs ex u, print_factor cf pr bs ex = Ok u ->
    nguard cf bs = true -> nguard cf ex = true -> negb (is_den bs ex) || negb (ityp cf bs) = true -> Inv2 cf bs u.
  Proof.
    intros bs ex u E Gb Ge G3. unfold print_factor in E. unfold is_den in G3. unfold den_exp in *.
    destruct (is_E bs) eqn:EE; [|destruct (neg_rational_exp ex) as [nex|] eqn:En].
    - destruct (is_num_int ex 1); [exact (plt_inv2 _ _ _ E Gb)|]. apply (print_pow_ityp _ _ _ E).
      cbn [nguard]. rewrite Gb, Ge, EE. reflexivity.
    - destruct (num_is nex 1); [exact (plt_inv2 _ _ _ E Gb)|]. apply (print_pow_ityp _ _ _ E).
      cbn [nguard]. simpl in G3. rewrite Gb, G3, !orb_true_r. reflexivity.
    - destruct (is_num_int ex 1); [exact (plt_inv2 _ _ _ E Gb)|]. apply (print_pow_ityp _ _ _ E).
      cbn [nguard]. rewrite Gb, Ge, (num_exp_not_m1 _ En), orb_true_r. reflexivity.
  Qed.

  (* the denominator factors are floating; a product without denominator is int-typed only if all
     its bases are possibly int-typed *)
  Lemma mul_factors_inv2 : forall d ns ds, mul_factors cf pr d = Ok (ns, ds) ->
    (forall p, In p d -> nguard cf (fst p) = true /\ nguard cf (snd p) = true /\
                         (negb (is_den (fst p) (snd p)) || negb (ityp cf (fst p))) = true) ->
    Forall nid ns /\ Forall flt ds /\
    (forallb int_typed ns = true -> ds = [] -> forallb (fun p => ityp cf (fst p)) d = true).
  Proof.
    refine (mul_factors_ind cf pr _ _ _).
    { intros _. repeat split; constructor. }
    intros bs ex r u ns ds E IH Hd.
    destruct (Hd (bs, ex) (or_introl eq_refl)) as (Gb & Ge & G3). cbn [fst snd] in Gb, Ge, G3.
    destruct (print_factor_fok _ _ _ E Gb Ge G3) as [F1 F2].
    destruct IH as (A & B & C); [intros p Hp; apply Hd; right; exact Hp|].
    unfold is_den in G3. unfold den_exp. destruct (if is_E bs then None else neg_rational_exp ex).
    - simpl in G3. apply negb_true_iff in G3. repeat split; auto; [|discriminate]. constructor; [|exact B].
      split; [exact F1|]. destruct (int_typed u); [rewrite (F2 eq_refl) in G3; discriminate | reflexivity].
    - repeat split; auto. cbn [forallb fst]. intros Q. apply andb_true_iff in Q as [Q1 Q2].
      intros ->. rewrite (F2 Q1). exact (C Q2 eq_refl).
  Qed.

  Lemma print_mul_inv2 : forall c d t, print_mul cf pr c d = Ok t -> nguard cf (EMul c d) = true -> Inv2 cf (EMul c d) t.
  Proof.
    intros c d t H G. cbn [nguard] in G. rewrite forallb_forall in G.
    apply print_mul_Ok in H as (cl & ns & ds & Hcl & E & ->).
    destruct (mul_factors_inv2 _ _ _ E) as (A & B & C).
    { intros p Hp. apply G in Hp. rewrite !andb_true_iff in Hp. tauto. }
    assert (Fcl : Forall nid cl).
    { destruct (num_is c (-1) || num_is c 1); [subst; constructor|].
      destruct Hcl as (u & Eu & ->). constructor; [exact (plt_num_inv2 _ _ _ Eu) | constructor]. }
    destruct (numer_nid (cl ++ ns)) as [Nn In]; [apply Forall_app; auto|].
    destruct (signed_nid (num_is c (-1)) (numer_of (cl ++ ns))) as [Ns Is].
    destruct (over_nid (signed (num_is c (-1)) (numer_of (cl ++ ns))) ds) as [Nt It]; [unfold nid; rewrite Ns; exact Nn | exact B|].
    split; [exact Nt|]. intros I. destruct (It I) as [-> Js]. cbn [ityp]. rewrite Is, In, forallb_app in Js.
    apply andb_true_iff in Js. exact (C (proj2 Js) eq_refl).
  Qed.

  Lemma mapM_inv2 : forall l ts, mapM pr l = Ok ts -> forallb (nguard cf) l = true -> Forall nid ts.
  Proof. apply mapM_Forall. intros x t E G. exact (proj1 (IHpr _ _ E G)). Qed.

  Lemma chain_plain_nid : forall o r f, o <> BDiv -> nid f -> Forall nid r -> nid (chain_plain o f r).
  Proof.
    intros o r f Ho. revert r f. apply chain_plain_ind. unfold nid. intros a b Ha Hb. cbn [no_int_div].
    rewrite Ha, Hb. destruct o; try reflexivity. congruence.
  Qed.

  Lemma call_nid : forall name ts, Forall nid ts -> flt (call name ts).
  Proof.
    intros name ts F. unfold call, comma_args. destruct F as [|a r Ha Hr]; [split; reflexivity|].
    split; [|reflexivity]. apply (chain_plain_nid BComma); [discriminate | exact Ha | exact Hr].
  Qed.

  Lemma reduce_nid : forall fuel name l t, reduce fuel name l = Ok t -> Forall nid l -> nid t.
  Proof.
    intros fuel name. apply reduce_ind. unfold nid. intros a b Ha Hb. cbn [no_int_div]. rewrite Ha, Hb. reflexivity.
  Qed.

  Lemma pw_tree_inv2 : forall l t, pw_tree pr l = Ok t ->
    forallb (fun p => nguard cf (fst p) && nguard cf (snd p)) l = true ->
    nid t /\ (int_typed t = true -> forallb (fun p => ityp cf (fst p)) l = true).
  Proof.
    refine (pw_tree_ind pr _ _ _).
    - intros e te E G. cbn [forallb fst snd] in G. rewrite !andb_true_iff in G.
      destruct (IHpr _ _ E (proj1 (proj1 G))) as [W I].
      split; [exact W|]. cbn [int_typed forallb fst]. intros J. rewrite (I J). reflexivity.
    - intros e c r tc te tr Ec Ee IH G. cbn [forallb fst snd] in G. rewrite !andb_true_iff in G.
      destruct G as [[Ge Gc] Gr]. destruct (IHpr _ _ Ee Ge) as [We Ie]. destruct (IH Gr) as [Wr Ir].
      unfold nid in *. cbn [no_int_div int_typed forallb fst]. rewrite (proj1 (IHpr _ _ Ec Gc)), We, Wr.
      split; [reflexivity|]. intros J. apply andb_true_iff in J as [J1 J2]. rewrite (Ie J1). exact (Ir J2).
  Qed.

  Lemma contains_inv2 : forall e s t, contains_tree pr e s = Ok t -> nguard cf e = true -> nguard cf s = true -> nid t.
  Proof.
    intros e s t H Ge Gs. unfold contains_tree in H. destruct s; try discriminate.
    - destruct (code =? TC_FiniteSet); [|discriminate]. apply bind_Ok in H as (x & _ & H). discriminate.
    - cbn [nguard] in Gs. apply andb_true_iff in Gs as [G1 G2].
      apply bind_Ok in H as (tv & E & H). pose proof (proj1 (IHpr _ _ E Ge)) as Wv.
      apply bind_Ok in H as (lft & E1 & H). apply bind_Ok in H as (rgt & E2 & H).
      (* either bound, when present, compares the variable's tree with the bound's *)
      assert (B : forall (inf : bool) o x side, nguard cf x = true -> o <> BDiv ->
                  (if inf then Ok None else do tx <- pr x; Ok (Some (CBin o tv tx))) = Ok side ->
                  match side with Some a => nid a | None => True end).
      { intros inf o x side Gx Ho Hx. destruct inf; [injection Hx as <-; exact I|].
        apply bind_Ok in Hx as (tx & Ex & [= <-]). unfold nid in *. cbn [no_int_div].
        rewrite Wv, (proj1 (IHpr _ _ Ex Gx)). destruct o; try reflexivity. congruence. }
      apply B in E1; [|exact G1 | destruct lo; discriminate]. apply B in E2; [|exact G2 | destruct ro; discriminate].
      destruct lft as [a|], rgt as [b|]; try discriminate H; injection H as <-; auto.
      unfold nid in *. cbn [no_int_div]. rewrite E1, E2. reflexivity.
    - destruct ((code =? TC_Reals) || (code =? TC_Rationals) || (code =? TC_Integers) || (code =? TC_EmptySet) || (code =? TC_UniversalSet)); [|discriminate].
      apply bind_Ok in H as (x & _ & H). discriminate.
  Qed.

  Lemma print_f1_inv2 code a t : print_node cf pr (EF1 code a) = Ok t -> nguard cf (EF1 code a) = true ->
    Inv2 cf (EF1 code a) t.
  Proof.
    intros H G. cbn [print_node] in H. cbn [nguard] in G.
    destruct (mem_code code rewrite_trig_codes); [discriminate|].
    unfold Inv2. cbn [ityp].
    destruct (code =? TC_Not).
    { apply bind_Ok in H as (ta & E & [= <-]). split; [exact (proj1 (IHpr _ _ E G)) | reflexivity]. }
    destruct (code =? TC_Sign).
    { apply bind_Ok in H as (ta & E & [= <-]).
      apply flt_any, sign_tree_nid. exact (proj1 (IHpr _ _ E G)). }
    destruct (code =? TC_UnevaluatedExpr).
    { destruct (IHpr _ _ H G) as [W I]. split; [exact W|]. intros J. rewrite (I J). reflexivity. }
    destruct (lookup code code_one_arg) as [nm|];
      [|destruct (if c99 cf then lookup code c99_one_arg else None) as [nm|];
        [|destruct (lookup code str_names) as [nm|]; [|discriminate]]];
      apply bind_Ok in H as (ta & E & [= <-]); apply flt_any, (call1_flt _ _ _ E G).
  Qed.

  Lemma print_f2_inv2 code a b t : print_node cf pr (EF2 code a b) = Ok t -> nguard cf (EF2 code a b) = true ->
    Inv2 cf (EF2 code a b) t.
  Proof.
    intros H G. cbn [print_node] in H. cbn [nguard] in G. apply andb_true_iff in G as [Ga Gb].
    unfold Inv2. cbn [ityp].
    destruct (is_relational code).
    { apply bind_Ok in H as (ta & E & H). apply bind_Ok in H as (tb & E' & [= <-]).
      split; [|reflexivity]. cbn [no_int_div].
      rewrite (proj1 (ple_inv2 _ _ _ E Ga)), (proj1 (ple_inv2 _ _ _ E' Gb)). unfold rel_op.
      destruct (code =? TC_Equality); [reflexivity|]. destruct (code =? TC_Unequality); [reflexivity|].
      destruct (code =? TC_LessThan); reflexivity. }
    destruct (lookup code str_names) as [nm|]; [|discriminate].
    apply bind_Ok in H as (ta & E & H). apply bind_Ok in H as (tb & E' & [= <-]).
    apply flt_any, (call2_flt _ _ _ _ _ E Ga E' Gb).
  Qed.

  Lemma print_fn_inv2 code args t : print_node cf pr (EFN code args) = Ok t -> nguard cf (EFN code args) = true ->
    Inv2 cf (EFN code args) t.
  Proof.
    intros H G. cbn [print_node] in H. cbn [nguard] in G. unfold Inv2. cbn [ityp].
    destruct ((code =? TC_Max) || (code =? TC_Min)).
    { destruct (Nat.ltb (List.length args) 2) eqn:EL; [discriminate|]. apply Nat.ltb_ge in EL.
      apply bind_Ok in H as (ts & E & H). rewrite <- (mapM_length _ _ _ E) in EL.
      pose proof (reduce_nid _ _ _ _ H (mapM_inv2 _ _ E G)) as W.
      destruct (reduce_call _ _ _ _ H EL) as [x ->]. split; [exact W | discriminate]. }
    destruct ((code =? TC_And) || (code =? TC_Or)).
    { apply bind_Ok in H as (ts & E & H). pose proof (mapM_inv2 _ _ E G) as F.
      destruct F as [|f r Hf Hr]; [discriminate|]. simpl in H. injection H as <-. split; [|reflexivity].
      cbn [no_int_div]. apply chain_plain_nid; [destruct (code =? TC_And); discriminate | exact Hf |].
      apply Forall_map. exact Hr. }
    destruct (code =? TC_Xor).
    { apply bind_Ok in H as (ts & E & H). pose proof (mapM_inv2 _ _ E G) as F.
      assert (X : forall a, nid a -> nid (CParen false (CBin BNe (CParen false a) (CInt 0)))).
      { unfold nid. intros a Wa. cbn [no_int_div]. rewrite Wa. reflexivity. }
      destruct F as [|f r Hf Hr]; [discriminate|]. simpl in H. injection H as <-. split; [|reflexivity].
      cbn [no_int_div]. apply chain_plain_nid; [discriminate | exact (X f Hf) |].
      apply Forall_map. apply Forall_impl with (2 := Hr). exact X. }
    destruct (code =? TC_FiniteSet); [discriminate|].
    destruct (lookup code str_names) as [nm|]; [|discriminate].
    apply bind_Ok in H as (ts & E & [= <-]).
    apply flt_any, call_nid, (mapM_inv2 _ _ E G).
  Qed.

  (* every node kind the printers accept; literals, identifiers and calls are floating *)
  Lemma print_node_inv2 : forall e t, print_node cf pr e = Ok t -> nguard cf e = true -> Inv2 cf e t.
  Proof using IHpr.
    intros e t H G. destruct e; try discriminate H.
    - exact (print_num_inv2 _ _ _ H).
    - injection H as <-. split; [reflexivity | discriminate].
    - injection H as <-. split; [reflexivity | discriminate].
    - cbn [print_node] in H.
      assert (Hlit : forall z, nid (if fl cf then lit_of_Z cf z else int_lit cf z)).
      { intros z. destruct (fl cf); [apply lit_of_Z_nid | apply int_lit_nid]. }
      destruct (bytes_eqb name name_E); [|destruct (bytes_eqb name name_pi)];
        injection H as <-; (split; [|discriminate]); try reflexivity; apply Hlit.
    - exact (print_add_inv2 _ _ _ H G).
    - exact (print_mul_inv2 _ _ _ H G).
    - exact (print_pow_inv2 _ _ _ H G).
    - exact (print_f1_inv2 _ _ _ H G).
    - exact (print_f2_inv2 _ _ _ _ H G).
    - exact (print_fn_inv2 _ _ _ H G).
    - cbn [nguard] in G. apply bind_Ok in H as (ts & E & [= <-]).
      apply flt_any, call_nid, (mapM_inv2 _ _ E G).
    - cbn [print_node] in H. cbn [nguard] in G. apply andb_true_iff in G as [Ga Gb].
      destruct (code =? TC_Contains); [|discriminate].
      split; [exact (contains_inv2 _ _ _ H Ga Gb) | reflexivity].
    - cbn [nguard] in G. exact (pw_tree_inv2 _ _ H G).
    - injection H as <-. apply flt_any. exact (flt_lit_nid cf false (if b then 4607182418800017408 else 0)).
    - cbn [print_node] in H.
      destruct ((code =? TC_Reals) || (code =? TC_Rationals) || (code =? TC_Integers) || (code =? TC_EmptySet) || (code =? TC_UniversalSet)); discriminate.
  Qed.
End Node2.

Theorem ctree_fuel_inv2 : forall cf f e t, ctree_fuel cf f e = Ok t -> nguard cf e = true -> Inv2 cf e t.
Proof.
  intros cf. induction f as [|f IH]; intros e t H G; [discriminate|].
  exact (print_node_inv2 cf (ctree_fuel cf f) IH e t H G).
Qed.

(* LITERAL TYPING: in the C text printed for an expression none of whose divisors is possibly
   int-typed, no division is carried out in integer arithmetic *)
Theorem ctree_no_int_div : forall cf e t, nguard cf e = true -> ctree cf e = Ok t -> no_int_div t = true.
Proof. intros cf e t G H. exact (proj1 (ctree_fuel_inv2 _ _ _ _ H G)). Qed.
