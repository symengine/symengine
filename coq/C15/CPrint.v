(* C15 -- how the printer model (CModel.v) builds its trees, apart from what is then proved about
   them: the left spine along which [graft] and [neg_graft] descend, the path of a successful
   [strip_neg], and what a successful run of each monadic traversal consists of.  The
   parenthesisation (CModelProofs.v), integer-typing (CIntDiv.v) and value (CSound.v) proofs all
   walk the printer through these. *)
From SE Require Export C15.CSpec.
Local Open Scope N_scope.

Lemma bind_Ok {A B} (r : res A) (f : A -> res B) (y : B) :
  bind r f = Ok y -> exists x, r = Ok x /\ f x = Ok y.
Proof. destruct r; try discriminate. intros H. exists a. auto. Qed.

(* [graft o a k] and [neg_graft k] walk down the left operands of k while the operator met has the
   precedence of o (of * for neg_graft) and stop at the first node of another level; only a binary
   node can have the level of a binary operator *)
Lemma spine_ind (o : binop) (P : cexp -> Prop) :
  (forall k, level k <> bprec o -> P k) ->
  (forall o' l r, bprec o' = bprec o -> P l -> P (CBin o' l r)) ->
  forall k, P k.
Proof.
  intros Hstop Hgo.
  induction k as [n|txt bits|s|k IHk|k IHk|o' l IHl r IHr|nl c IHc x IHx y IHy|f k IHk|f|nl k IHk];
    try (apply Hstop; destruct o; cbv; discriminate).
  destruct (N.eq_dec (bprec o') (bprec o)) as [E|E]; [apply Hgo; assumption | apply Hstop; exact E].
Qed.

Lemma graft_stop o a k : level k <> bprec o -> graft o a k = CBin o a k.
Proof.
  destruct k; try reflexivity. cbn [graft level]. intros H. apply N.eqb_neq in H. rewrite H. reflexivity.
Qed.
Lemma graft_go o a o' l r : bprec o' = bprec o -> graft o a (CBin o' l r) = CBin o' (graft o a l) r.
Proof. intros E. cbn [graft]. rewrite E, N.eqb_refl. reflexivity. Qed.

Lemma neg_graft_stop k : level k <> bprec BMul -> neg_graft k = CNeg k.
Proof.
  destruct k; try reflexivity. cbn [neg_graft level]. intros H. apply N.eqb_neq in H. rewrite H. reflexivity.
Qed.
Lemma neg_graft_go o' l r : bprec o' = bprec BMul -> neg_graft (CBin o' l r) = CBin o' (neg_graft l) r.
Proof. intros E. cbn [neg_graft]. rewrite E. reflexivity. Qed.

(* a successful [strip_neg] descends through left operands and conditions to a unary minus *)
Lemma strip_neg_ind (P : cexp -> cexp -> Prop) :
  (forall a, P (CNeg a) a) ->
  (forall o l l' r, strip_neg l = Some l' -> P l l' -> P (CBin o l r) (CBin o l' r)) ->
  (forall nl c c' a b, strip_neg c = Some c' -> P c c' -> P (CCond nl c a b) (CCond nl c' a b)) ->
  forall t t', strip_neg t = Some t' -> P t t'.
Proof.
  intros Hneg Hbin Hcond.
  induction t as [n|txt bits|s|t IHt|t IHt|o t1 IHt1 t2 IHt2|nl c IHc x IHx y IHy|f t IHt|f|nl t IHt];
    intros t' H; simpl in H; try discriminate.
  - injection H as <-. apply Hneg.
  - destruct (strip_neg t1) as [l'|] eqn:E; [|discriminate]. injection H as <-. apply Hbin; auto.
  - destruct (strip_neg c) as [c'|] eqn:E; [|discriminate]. injection H as <-. apply Hcond; auto.
Qed.

Lemma pmap_insert_In : forall k v m x, In x (pmap_insert k v m) -> x = (k, v) \/ In x m.
Proof.
  induction m as [|[k' v'] r IH]; simpl; intros x H.
  - destruct H as [H|[]]. left. symmetry. exact H.
  - destruct (printer_lt k' k); [|destruct (printer_lt k k')]; simpl in H; try tauto.
    + destruct H as [H|H]; [tauto|]. apply IH in H. tauto.
    + destruct H as [H|H]; [left; symmetry; exact H | tauto].
Qed.

Lemma pmap_of_In : forall d x, In x (pmap_of d) -> In x d.
Proof.
  unfold pmap_of. intros d x H.
  assert (G : forall d m, In x (fold_left (fun m p => pmap_insert (fst p) (snd p) m) d m) -> In x m \/ In x d).
  { clear. induction d as [|[k v] d IH]; simpl; intros m H; [tauto|].
    apply IH in H as [H|H]; [|tauto]. apply pmap_insert_In in H as [->|H]; tauto. }
  apply G in H as [[]|H]. exact H.
Qed.

Lemma pmap_of_nonempty : forall d, d <> [] -> pmap_of d <> [].
Proof.
  assert (I : forall k v m, pmap_insert k v m <> []).
  { intros k v [|[k' v'] r]; simpl; [|destruct (printer_lt k' k); [|destruct (printer_lt k k')]]; discriminate. }
  assert (G : forall d m, m <> [] -> fold_left (fun m p => pmap_insert (fst p) (snd p) m) d m <> []).
  { induction d as [|p d IH]; simpl; intros m Hm; [exact Hm | apply IH, I]. }
  intros [|p d] Hd; [congruence|]. unfold pmap_of. cbn [fold_left]. apply G, I.
Qed.

(* the guards of a sum and of a product, read on the dictionary *)
Lemma cguard_add c d : cguard (EAdd c d) = true ->
  forall p, In p (pmap_of d) ->
  cguard (fst p) = true /\ supported_num (snd p) = true /\ add_term_ok (fst p) (snd p) = true.
Proof.
  cbn [cguard]. rewrite andb_true_iff, forallb_forall. intros [_ G] p Hp.
  apply pmap_of_In, G in Hp. rewrite !andb_true_iff in Hp. tauto.
Qed.

Lemma cguard_mul c d : cguard (EMul c d) = true ->
  (forall p, In p d -> cguard (fst p) = true /\ cguard (snd p) = true /\ mul_factor_ok (fst p) (snd p) = true)
  /\ (num_is c (-1) = true -> lmin (EMul (NInt 1) d) = false).
Proof.
  cbn [cguard]. rewrite !andb_true_iff, forallb_forall. intros [[_ G] G3]. split.
  - intros p Hp. apply G in Hp. rewrite !andb_true_iff in Hp. tauto.
  - intros E. rewrite E in G3. apply negb_true_iff. exact G3.
Qed.

Section Runs.
  Variable cf : cfg.
  Variable pr : expr -> res cexp.

  Lemma plt_Ok x p t : plt pr x p = Ok t -> exists u, pr x = Ok u /\ t = paren_if (precedence x <? p) u.
  Proof. intros H. apply bind_Ok in H as (u & E & H). exists u. split; congruence. Qed.
  Lemma ple_Ok x p t : ple pr x p = Ok t -> exists u, pr x = Ok u /\ t = paren_if (precedence x <=? p) u.
  Proof. intros H. apply bind_Ok in H as (u & E & H). exists u. split; congruence. Qed.
  Lemma plt_num_Ok v p t : plt_num cf v p = Ok t ->
    exists u, print_num cf v = Ok u /\ t = paren_if (num_precedence v <? p) u.
  Proof. intros H. apply bind_Ok in H as (u & E & H). exists u. split; congruence. Qed.

  Lemma mapM_Forall2 : forall l ts, mapM pr l = Ok ts -> Forall2 (fun x t => pr x = Ok t) l ts.
  Proof.
    induction l as [|x r IH]; intros ts H; simpl in H.
    - injection H as <-. constructor.
    - apply bind_Ok in H as (y & E & H). apply bind_Ok in H as (ys & E' & H). injection H as <-.
      constructor; auto.
  Qed.

  Lemma mapM_length l ts : mapM pr l = Ok ts -> List.length ts = List.length l.
  Proof. intros H. apply mapM_Forall2 in H. induction H; simpl; congruence. Qed.

  (* what holds of every operand's tree holds of the trees of an operand list *)
  Lemma mapM_Forall (G : expr -> bool) (Q : cexp -> Prop) :
    (forall x t, pr x = Ok t -> G x = true -> Q t) ->
    forall l ts, mapM pr l = Ok ts -> forallb G l = true -> Forall Q ts.
  Proof.
    intros HQ l ts H. apply mapM_Forall2 in H. induction H as [|x t l ts E _ IH]; intros HG; constructor.
    - apply (HQ x t E). simpl in HG. apply andb_true_iff in HG. tauto.
    - apply IH. simpl in HG. apply andb_true_iff in HG. tauto.
  Qed.

  (* add_terms: every term printed, joined to the accumulator from left to right *)
  Lemma add_terms_ind (P : option cexp -> list (expr * number) -> cexp -> Prop) :
    (forall a, P (Some a) [] a) ->
    (forall acc k v r u t, add_term cf pr k v = Ok u -> P (Some (add_join acc u)) r t -> P acc ((k, v) :: r) t) ->
    forall l acc t, add_terms cf pr acc l = Ok t -> P acc l t.
  Proof.
    intros H0 HS. induction l as [|[k v] r IH]; intros acc t H; simpl in H.
    - destruct acc; [injection H as <-; apply H0 | discriminate].
    - apply bind_Ok in H as (u & E & H). eauto.
  Qed.

  (* mul_factors: each dictionary entry is printed into the denominator list (negative Integer or
     Rational exponent, negated) or into the numerator list *)
  Definition den_exp (bs ex : expr) : option number := if is_E bs then None else neg_rational_exp ex.
  Definition print_factor (bs ex : expr) : res cexp :=
    match den_exp bs ex with
    | Some nex => if num_is nex 1 then plt pr bs SP_Mul else print_pow cf pr bs (ENum nex)
    | None => if is_num_int ex 1 then plt pr bs SP_Mul else print_pow cf pr bs ex
    end.

  Lemma mul_factors_ind (P : list (expr * expr) -> list cexp -> list cexp -> Prop) :
    P [] [] [] ->
    (forall bs ex r u ns ds, print_factor bs ex = Ok u -> P r ns ds ->
       P ((bs, ex) :: r) (if den_exp bs ex then ns else u :: ns) (if den_exp bs ex then u :: ds else ds)) ->
    forall d ns ds, mul_factors cf pr d = Ok (ns, ds) -> P d ns ds.
  Proof.
    intros H0 HS. induction d as [|[bs ex] r IH]; intros ns ds H.
    - injection H as <- <-. exact H0.
    - cbn [mul_factors] in H. specialize (HS bs ex r). unfold print_factor, den_exp in HS.
      destruct (if is_E bs then None else neg_rational_exp ex) as [nex|];
        apply bind_Ok in H as (u & E & H); apply bind_Ok in H as ([ns' ds'] & E' & H); injection H as <- <-;
        apply (HS u ns' ds' E); apply IH; exact E'.
  Qed.

  (* print_mul: coefficient (unless +-1) and numerator factors chained by *, the constant 1 for an
     empty numerator; '-' prepended for the coefficient -1; '/' and the denominator factors, in
     parentheses when there are several *)
  Definition numer_of (l : list cexp) : cexp :=
    match l with [] => CInt 1 | f :: r => chain BMul f r end.
  Definition over (s : cexp) (ds : list cexp) : cexp :=
    match ds with
    | [] => s
    | [d1] => CBin BDiv s d1
    | d1 :: r => CBin BDiv s (CParen false (chain BMul d1 r))
    end.

  Definition signed (neg : bool) (t : cexp) : cexp := if neg then neg_graft t else t.

  Lemma print_mul_Ok c d t : print_mul cf pr c d = Ok t ->
    exists cl ns ds,
      (if num_is c (-1) || num_is c 1 then cl = [] else exists u, plt_num cf c SP_Mul = Ok u /\ cl = [u])
      /\ mul_factors cf pr d = Ok (ns, ds)
      /\ t = over (signed (num_is c (-1)) (numer_of (cl ++ ns))) ds.
  Proof.
    unfold print_mul. intros H. apply bind_Ok in H as (cl & E & H). apply bind_Ok in H as ([ns ds] & E' & H).
    exists cl, ns, ds. split; [|split; [exact E'|]].
    - destruct (num_is c (-1) || num_is c 1); [congruence|].
      apply bind_Ok in E as (u & E & H'). exists u. split; congruence.
    - cbv zeta in H. destruct ds as [|d1 [|d2 r]]; injection H as <-; reflexivity.
  Qed.

  (* chain_plain: operands joined from the left *)
  Lemma chain_plain_ind (o : binop) (P Q : cexp -> Prop) :
    (forall a b, P a -> Q b -> P (CBin o a b)) ->
    forall r f, P f -> Forall Q r -> P (chain_plain o f r).
  Proof.
    intros HP. unfold chain_plain. induction r as [|x r IH]; intros f Hf Hr; simpl; [exact Hf|].
    inversion Hr; subst. apply IH; auto.
  Qed.

  (* reduce: nested two-argument calls over the operands *)
  Lemma reduce_ind (name : list N) (P : cexp -> Prop) :
    (forall a b, P a -> P b -> P (CCall name (CBin BComma a b))) ->
    forall fuel l t, reduce fuel name l = Ok t -> Forall P l -> P t.
  Proof.
    intros HP. induction fuel as [|f IH]; intros l t H F; simpl in H; [discriminate|].
    destruct l as [|a [|b r]]; [discriminate | injection H as <-; inversion F; assumption |].
    apply bind_Ok in H as (x & E & H). apply bind_Ok in H as (y & E' & H). injection H as <-.
    rewrite <- (firstn_skipn (Nat.div (List.length (a :: b :: r)) 2)) in F. apply Forall_app in F. apply HP; eapply IH; eauto; tauto.
  Qed.

  Lemma reduce_call fuel name l t : reduce fuel name l = Ok t -> (2 <= List.length l)%nat ->
    exists a, t = CCall name a.
  Proof.
    destruct fuel; simpl; [discriminate|]. destruct l as [|a [|b r]]; simpl; try lia. intros H _.
    apply bind_Ok in H as (x & E & H). apply bind_Ok in H as (y & E' & H). injection H as <-. eauto.
  Qed.

  (* pw_tree: the last branch, or a conditional whose else-branch is the rest *)
  Lemma pw_tree_ind (P : list (expr * expr) -> cexp -> Prop) :
    (forall e te, pr e = Ok te -> P [(e, EBool true)] (CParen true te)) ->
    (forall e c r tc te tr, pr c = Ok tc -> pr e = Ok te -> P r tr ->
       P ((e, c) :: r) (CParen false (CCond true (CParen false tc) (CParen true te) tr))) ->
    forall l t, pw_tree pr l = Ok t -> P l t.
  Proof.
    intros H1 HS. induction l as [|[e c] r IH]; intros t H; [discriminate|].
    destruct r as [|q r].
    - cbn [pw_tree] in H. destruct c; try discriminate. destruct b; try discriminate.
      apply bind_Ok in H as (te & E & H). injection H as <-. auto.
    - remember (q :: r) as l'. cbn [pw_tree] in H. rewrite Heql' in H. rewrite <- Heql' in H.
      apply bind_Ok in H as (tc & E & H). apply bind_Ok in H as (te & E' & H). apply bind_Ok in H as (tr & E'' & H).
      injection H as <-. auto.
  Qed.
End Runs.
