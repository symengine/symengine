From SE Require Import C15.CSpec.
Local Open Scope N_scope.
(* without the guard the statement is false: y + Contains(x, [1, 2]) is printed `y + x >= 1 && x <= 2`,
   which C reads as ((y + x) >= 1) && (x <= 2)  (replayed on the library: case
   `(add y (contains x (interval (i 1) (i 2) 0 0)))`) *)
Theorem C15_cprint_parse_refuted : exists (cf : cfg) (e : expr) (t : cexp),
  ctree cf e = Ok t /\ read_back t <> Some (erase t).
Proof.
  exists {| c99 := true; fl := false |}.
  exists (EAdd (NInt 0) [(ELex TC_Contains (ESym [120]) (EInterval (ENum (NInt 1)) (ENum (NInt 2)) false false), NInt 1);
                          (ESym [121], NInt 1)]).
  eexists. split; [vm_compute; reflexivity|]. vm_compute. discriminate.
Qed.
Print Assumptions C15_cprint_parse_refuted.
