(* C15 -- the reference reader of C expressions (CParse.v) and the generic half of the
   parenthesisation theorem:
     parse_render : wp t = true -> read_back t = Some (erase t)
   (the text of a well-parenthesised tree, read with C's precedence and associativity rules, is that
   tree).  Axiom-free. *)
From SE Require Export C15.CParse.
From Coq Require Import Lia.
Local Open Scope N_scope.

Lemma lexed_app : forall a b, lexed (a ++ b) = lexed a ++ lexed b.
Proof. intros. unfold lexed. apply filter_app. Qed.

Lemma lexed_op_toks : forall o, lexed (op_toks o) = [TOp o].
Proof. destruct o; reflexivity. Qed.

(* the tokens of a compound tree, white space dropped *)
Lemma lexed_bin : forall o a b, lexed (render (CBin o a b)) = lexed (render a) ++ TOp o :: lexed (render b).
Proof. intros. simpl. rewrite !lexed_app, lexed_op_toks. reflexivity. Qed.
Lemma lexed_cond : forall nl c a b,
  lexed (render (CCond nl c a b)) = lexed (render c) ++ TQuest :: lexed (render a) ++ TColon :: lexed (render b).
Proof. intros. simpl. rewrite !lexed_app. simpl. rewrite !lexed_app. reflexivity. Qed.
Lemma lexed_call : forall f a, lexed (render (CCall f a)) = TId f :: TLpar :: lexed (render a) ++ [TRpar].
Proof. intros. simpl. rewrite lexed_app. reflexivity. Qed.
Lemma lexed_paren : forall nl a, lexed (render (CParen nl a)) = TLpar :: lexed (render a) ++ [TRpar].
Proof. intros. simpl. destruct nl; simpl; rewrite !lexed_app; reflexivity. Qed.

(* the first token of a rendered tree *)
Fixpoint ftok (t : cexp) : tok :=
  match t with
  | CInt n => TInt n
  | CFlt b s => TFlt b s
  | CId s => TId s
  | CNeg _ => TOp BSub
  | CNot _ => TBang
  | CBin _ a _ => ftok a
  | CCond _ c _ _ => ftok c
  | CCall f _ | CCall0 f => TId f
  | CParen _ _ => TLpar
  end.

Lemma lexed_render_ftok : forall t, exists l, lexed (render t) = ftok t :: l.
Proof.
  induction t; try (simpl; eexists; reflexivity).
  - destruct IHt1 as [l E]. rewrite lexed_bin, E. simpl. eexists. reflexivity.
  - destruct IHt1 as [l E]. rewrite lexed_cond, E. simpl. eexists. reflexivity.
Qed.

Definition hdtok (l : list tok) : tok := match l with t :: _ => t | [] => TRpar end.

Lemma hdtok_render : forall t rest, hdtok (lexed (render t) ++ rest) = ftok t.
Proof. intros. destruct (lexed_render_ftok t) as [l E]. rewrite E. reflexivity. Qed.

Lemma ftok_not_rpar : forall t, ftok t <> TRpar.
Proof. induction t; simpl; auto; discriminate. Qed.

Lemma ftok_not_minus : forall t, PREC_UNARY <= level t -> is_neg t = false -> ftok t <> TOp BSub.
Proof.
  destruct t; simpl; intros; try discriminate.
  - exfalso. unfold PREC_UNARY in *. destruct o; simpl in *; lia.
  - exfalso. unfold PREC_UNARY, PREC_COND in *. lia.
Qed.

Lemma step_neg : forall rec r1, hdtok r1 <> TOp BSub ->
  step rec RUnary (TOp BSub :: r1) =
  match rec RUnary r1 with Some (a, r2) => Some (CNeg a, r2) | None => None end.
Proof.
  intros rec r1 H. simpl. destruct r1 as [|t r]; [reflexivity|].
  destruct t; try reflexivity. destruct o; try reflexivity. exfalso. apply H. reflexivity.
Qed.

Lemma step_call : forall rec s r2, hdtok r2 <> TRpar ->
  step rec RUnary (TId s :: TLpar :: r2) = close_paren (rec (RExpr 1) r2) (CCall s).
Proof.
  intros rec s r2 H. simpl. destruct r2 as [|t r]; [exfalso; apply H; reflexivity|].
  destruct t; try reflexivity. exfalso. apply H. reflexivity.
Qed.

Definition hd_prec (l : list tok) : N :=
  match l with
  | TOp o :: _ => bprec o
  | TQuest :: _ => PREC_COND
  | _ => 0
  end.
Definition no_lpar (l : list tok) : bool := match l with TLpar :: _ => false | _ => true end.
Definition rlevel (t : cexp) : N := match t with CCond _ _ _ _ => 2 | _ => level t end.

Fixpoint cost (t : cexp) : nat :=
  match t with
  | CInt _ | CFlt _ _ | CId _ | CCall0 _ => 1
  | CNeg a | CNot a => S (cost a)
  | CCall _ a | CParen _ a => S (S (cost a))
  | CBin _ a b => cost a + cost b + 2
  | CCond _ c a b => cost c + cost a + cost b + 2
  end.

Lemma cost_pos : forall t, (1 <= cost t)%nat.
Proof. destruct t; simpl; lia. Qed.

(* [parse], asked r on ts, returns res at every fuel from n on *)
Definition from (n : nat) (r : req) (ts : list tok) (res : cexp * list tok) : Prop :=
  forall m, (n <= m)%nat -> parse m r ts = Some res.

Lemma loop_stop : forall p lhs rest, hd_prec rest < p -> from 1 (RLoop p lhs) rest (lhs, rest).
Proof.
  intros p lhs rest H [|m] Hm; [lia|]. simpl. destruct rest as [|t r]; [reflexivity|].
  destruct t; try reflexivity; simpl in H.
  - replace (p <=? bprec o) with false; [reflexivity|]. symmetry. apply N.leb_gt. exact H.
  - replace (p <=? PREC_COND) with false; [reflexivity|]. symmetry. apply N.leb_gt. exact H.
Qed.

Lemma rlevel_left : forall a x, x <= level a -> x <> 2 -> x <> 3 -> x <= rlevel a.
Proof. destruct a; simpl; intros; try assumption. unfold PREC_COND in *. lia. Qed.

Lemma rlevel_right : forall b x, x < level b -> x <= rlevel b.
Proof. destruct b; simpl; intros; try lia. unfold PREC_COND in *. lia. Qed.

Lemma bprec_vals : forall o, bprec o <> 2 /\ bprec o <> 3 /\ 1 <= bprec o /\ bprec o <= 13.
Proof. destruct o; simpl; lia. Qed.

Lemma level_ge1 : forall t, 1 <= level t.
Proof. destruct t; simpl; unfold PREC_COND, PREC_UNARY, PREC_PRIMARY; try lia. destruct o; simpl; lia. Qed.

(* P1: a tree of unary level is read by the request RUnary.  P2: any tree followed by [rest] is read
   by RExpr p and the operator loop goes on with it as left operand; what the loop then returns is a
   parameter, so that the statement can be used below an enclosing operator. *)
Definition P1 (t : cexp) : Prop :=
  PREC_UNARY <= level t -> forall rest, no_lpar rest = true ->
  from (cost t) RUnary (lexed (render t) ++ rest) (erase t, rest).
Definition P2 (t : cexp) : Prop :=
  forall p rest n res, p <= level t -> hd_prec rest <= rlevel t -> no_lpar rest = true ->
  from n (RLoop p (erase t)) rest res ->
  from (n + cost t) (RExpr p) (lexed (render t) ++ rest) res.

Lemma P2_of_P1 : forall t, PREC_UNARY <= level t -> P1 t -> P1 t /\ P2 t.
Proof.
  intros t Hl H1. split; [exact H1|]. intros p rest n res Hp Hhd Hnl Hloop [|m] Hm.
  - pose proof (cost_pos t). lia.
  - assert (n <> 0)%nat by (intros ->; discriminate (Hloop 0%nat (le_n 0))).
    change (parse (S m)) with (step (parse m)). unfold step.
    rewrite (H1 Hl rest Hnl m) by lia. apply Hloop. pose proof (cost_pos t). lia.
Qed.

Lemma paren_inner : forall a rest m (k : cexp -> cexp), P2 a -> no_lpar rest = true -> (S (cost a) <= m)%nat ->
  close_paren (parse m (RExpr 1) (lexed (render a) ++ TRpar :: rest)) k = Some (k (erase a), rest).
Proof.
  intros a rest m k H2 Hnl Hm.
  rewrite (H2 1 (TRpar :: rest) 1%nat (erase a, TRpar :: rest)).
  - reflexivity.
  - apply level_ge1.
  - simpl. lia.
  - reflexivity.
  - apply loop_stop. simpl. lia.
  - lia.
Qed.

Lemma primary_unary : forall t, level t = PREC_PRIMARY -> PREC_UNARY <= level t.
Proof. intros t ->. discriminate. Qed.

(* the left operand is read, the loop takes the operator, reads the right operand one level up, and
   goes on with the binary node *)
Lemma P2_bin : forall o a b, P2 a -> P2 b -> bprec o <= level a -> bprec o < level b -> P2 (CBin o a b).
Proof.
  intros o a b P2a P2b Hla Hlb. pose proof (bprec_vals o) as [Hb2 [Hb3 [Hb1 Hb13]]].
  intros p rest n res Hp Hhd Hnl Hloop m Hm. simpl in Hp, Hhd, Hm.
  rewrite lexed_bin, <- app_assoc. cbn [app].
  apply (P2a p (TOp o :: lexed (render b) ++ rest) (S (Nat.max n (S (cost b))))).
  + lia.
  + simpl. apply rlevel_left; assumption.
  + reflexivity.
  + intros [|k] Hk; [lia|]. change (parse (S k)) with (step (parse k)).
    unfold step. replace (p <=? bprec o) with true by (symmetry; apply N.leb_le; exact Hp).
    rewrite (P2b (bprec o + 1) rest 1%nat (erase b, rest)).
    * apply Hloop. lia.
    * lia.
    * apply N.le_trans with (m := bprec o); [exact Hhd | apply rlevel_right; exact Hlb].
    * exact Hnl.
    * apply loop_stop. lia.
    * lia.
  + lia.
Qed.

(* likewise; the middle operand ends at the colon, the last is read at the level of ?: *)
Lemma P2_cond : forall nl c a b, P2 c -> P2 a -> P2 b -> PREC_COND < level c -> PREC_COND <= level b ->
  P2 (CCond nl c a b).
Proof.
  intros nl c a b P2c P2a P2b Hlc Hlb. unfold PREC_COND in *.
  intros p rest n res Hp Hhd Hnl Hloop m Hm. simpl in Hp, Hhd, Hm. unfold PREC_COND in *.
  rewrite lexed_cond, <- app_assoc. cbn [app]. rewrite <- app_assoc. cbn [app].
  set (K := Nat.max n (Nat.max (S (cost a)) (S (cost b)))).
  apply (P2c p (TQuest :: lexed (render a) ++ TColon :: lexed (render b) ++ rest) (S K)).
  + lia.
  + simpl. unfold PREC_COND. apply rlevel_right. exact Hlc.
  + reflexivity.
  + intros [|k] Hk; [lia|]. change (parse (S k)) with (step (parse k)).
    unfold step. replace (p <=? PREC_COND) with true by (symmetry; apply N.leb_le; exact Hp).
    rewrite (P2a 1 (TColon :: lexed (render b) ++ rest) 1%nat
               (erase a, TColon :: lexed (render b) ++ rest)).
    * rewrite (P2b PREC_COND rest 1%nat (erase b, rest)).
      -- apply Hloop. unfold K in Hk. lia.
      -- exact Hlb.
      -- apply N.le_trans with (m := 2); [exact Hhd | apply rlevel_right; unfold PREC_COND in *; lia].
      -- exact Hnl.
      -- apply loop_stop. unfold PREC_COND. lia.
      -- unfold K in Hk. lia.
    * apply level_ge1.
    * simpl. lia.
    * reflexivity.
    * apply loop_stop. simpl. lia.
    * unfold K in Hk. lia.
  + unfold K. lia.
Qed.

Lemma parse_render_gen : forall t, wp t = true -> P1 t /\ P2 t.
Proof.
  (* for a primary expression P2 follows from P1, and P1 is one step of the reader *)
  induction t; intros Hwp;
    try (apply P2_of_P1; [apply primary_unary; reflexivity|]; intros _ rest Hnl [|m] Hm; [simpl in Hm; lia|]; simpl in Hm).
  - reflexivity.
  - reflexivity.
  - simpl. destruct rest as [|t r]; [reflexivity|]. destruct t; try reflexivity. discriminate.
  - simpl in Hwp. rewrite !andb_true_iff, N.leb_le, negb_true_iff in Hwp. destruct Hwp as [[Hwa Hla] Hnn].
    destruct (IHt Hwa) as [H1a _].
    apply P2_of_P1; [apply N.le_refl|].
    intros _ rest Hnl [|m] Hm; [simpl in Hm; lia|]. simpl in Hm.
    change (lexed (render (CNeg t))) with (TOp BSub :: lexed (render t)).
    change (parse (S m)) with (step (parse m)).
    rewrite <- app_comm_cons. rewrite step_neg.
    + rewrite (H1a Hla rest Hnl m) by lia. reflexivity.
    + rewrite hdtok_render. apply ftok_not_minus; assumption.
  - simpl in Hwp. rewrite andb_true_iff, N.leb_le in Hwp. destruct Hwp as [Hwa Hla].
    destruct (IHt Hwa) as [H1a _].
    apply P2_of_P1; [apply N.le_refl|].
    intros _ rest Hnl [|m] Hm; [simpl in Hm; lia|]. simpl in Hm.
    change (lexed (render (CNot t))) with (TBang :: lexed (render t)).
    rewrite <- app_comm_cons. simpl.
    rewrite (H1a Hla rest Hnl m) by lia. reflexivity.
  - simpl in Hwp. rewrite !andb_true_iff, N.leb_le, N.ltb_lt in Hwp. destruct Hwp as [[[Hwa Hwb] Hla] Hlb].
    split; [|exact (P2_bin o t1 t2 (proj2 (IHt1 Hwa)) (proj2 (IHt2 Hwb)) Hla Hlb)].
    intros Hl. pose proof (bprec_vals o). simpl in Hl. unfold PREC_UNARY in Hl. lia.
  - simpl in Hwp. rewrite !andb_true_iff, N.leb_le, N.ltb_lt in Hwp.
    destruct Hwp as [[[[Hwc Hwa] Hwb] Hlc] Hlb].
    split; [|exact (P2_cond nl t1 t2 t3 (proj2 (IHt1 Hwc)) (proj2 (IHt2 Hwa)) (proj2 (IHt3 Hwb)) Hlc Hlb)].
    intros Hl. simpl in Hl. unfold PREC_UNARY, PREC_COND in Hl. lia.
  - simpl in Hwp. destruct (IHt Hwp) as [_ P2a].
    rewrite lexed_call. cbn [app]. rewrite <- app_assoc. cbn [app]. change (parse (S m)) with (step (parse m)).
    rewrite step_call.
    + apply (paren_inner t rest m (CCall f) P2a Hnl). lia.
    + rewrite hdtok_render. apply ftok_not_rpar.
  - reflexivity.
  - simpl in Hwp. destruct (IHt Hwp) as [_ P2a].
    rewrite lexed_paren. cbn [app]. rewrite <- app_assoc. cbn [app]. change (parse (S m)) with (step (parse m)). unfold step.
    apply (paren_inner t rest m (CParen false) P2a Hnl). lia.
Qed.

Lemma cost_tokens : forall t, (cost t <= 3 * List.length (lexed (render t)))%nat.
Proof.
  induction t; rewrite ?lexed_bin, ?lexed_cond, ?lexed_call, ?lexed_paren; simpl; rewrite ?app_length; simpl;
    rewrite ?app_length; simpl; lia.
Qed.

(* THE PARENTHESISATION THEOREM (generic part): the text of a well-parenthesised tree, read with
   C's precedence and associativity rules, is that tree *)
Theorem parse_render : forall t, wp t = true -> read_back t = Some (erase t).
Proof.
  intros t Hwp. destruct (parse_render_gen t Hwp) as [_ H2].
  unfold read_back, parse_tokens.
  pose proof (cost_tokens t).
  rewrite <- (app_nil_r (lexed (render t))) at 2.
  rewrite (H2 1 [] 1%nat (erase t, [])).
  - reflexivity.
  - apply level_ge1.
  - simpl. apply N.le_0_l.
  - reflexivity.
  - apply loop_stop. reflexivity.
  - lia.
Qed.
