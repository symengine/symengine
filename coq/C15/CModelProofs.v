(* C15 -- the parenthesisation theorem for the C code printers.
   For every expression satisfying the guard [cguard] (CSpec.v), the tree of C expressions that the model
   of C89CodePrinter / C99CodePrinter builds (CModel.v: parentheses exactly where the C++ calls
   parenthesize()) is well-parenthesised ([wp]); with CParseProofs.parse_render the emitted text, read
   with C's precedence and associativity rules, is therefore the printed operator tree.
   The invariant carried through the induction: wp, a lower bound of the C level of the text printed
   for each node ([clev]), and "does not begin with a minus sign" where a '-' is prepended. Axiom-free. *)
From SE Require Export C15.CParseProofs.
From SE Require Export C15.CPrint.
Local Open Scope N_scope.

(* leftmost operand of a chain of * and / is a unary minus *)
Fixpoint lneg (t : cexp) : bool :=
  match t with
  | CNeg _ => true
  | CBin o l _ => if bprec o =? 13 then lneg l else false
  | _ => false
  end.

Lemma level_cases : forall t, level t = 1 \/ level t = 3 \/ level t = 4 \/ level t = 5 \/ level t = 9 \/ level t = 10 \/ level t = 12 \/ level t = 13 \/ level t = 14 \/ level t = 16.
Proof. destruct t; simpl; unfold PREC_COND, PREC_UNARY, PREC_PRIMARY; try lia. destruct o; simpl; lia. Qed.


(* well-parenthesised and of level at least n *)
Definition good (n : N) (t : cexp) : Prop := wp t = true /\ n <= level t.

Lemma good_le m n t : m <= n -> good n t -> good m t.
Proof. intros H [W L]. split; [exact W | lia]. Qed.

Lemma good_primary n t : n <= 16 -> wp t = true -> level t = 16 -> good n t.
Proof. intros N W L. split; [exact W | lia]. Qed.

Lemma wp_bin : forall o a b, wp (CBin o a b) = true <-> wp a = true /\ wp b = true /\ bprec o <= level a /\ bprec o < level b.
Proof.
  intros. simpl. rewrite !andb_true_iff, N.leb_le, N.ltb_lt. tauto.
Qed.

Lemma good_bin n o a b : bprec o = n -> good n a -> wp b = true -> n < level b -> good n (CBin o a b).
Proof. intros <- [Wa La] Wb Lb. split; [apply wp_bin; auto | apply N.le_refl]. Qed.

Lemma graft_good o a k : good (bprec o) a -> good (bprec o) k -> good (bprec o) (graft o a k).
Proof.
  intros Ha. induction k as [k N|o' l r E IH] using (spine_ind o); intros [W L].
  - rewrite (graft_stop _ _ _ N). apply good_bin; auto. lia.
  - rewrite (graft_go _ _ _ _ _ E). apply wp_bin in W as (Wl & Wr & Ll & Lr).
    apply good_bin; [exact E | apply IH; split; [exact Wl | lia] | exact Wr | lia].
Qed.

Lemma lneg_stop k : level k <> bprec BMul -> lneg k = is_neg k.
Proof.
  destruct k; try reflexivity. cbn [lneg level is_neg]. change (bprec BMul) with 13. intros H. apply N.eqb_neq in H. rewrite H. reflexivity.
Qed.
Lemma lneg_go o' l r : bprec o' = bprec BMul -> lneg (CBin o' l r) = lneg l.
Proof. intros E. cbn [lneg]. rewrite E. reflexivity. Qed.

Lemma lneg_primary t : level t = 16 -> lneg t = false.
Proof. destruct t; try reflexivity; [discriminate | destruct o; discriminate]. Qed.

Lemma graft_lneg a k : lneg (graft BMul a k) = lneg a.
Proof.
  induction k as [k N|o' l r E IH] using (spine_ind BMul).
  - rewrite (graft_stop _ _ _ N). reflexivity.
  - rewrite (graft_go _ _ _ _ _ E), (lneg_go _ _ _ E). exact IH.
Qed.

(* "-" ++ text: sound when the text is a product-level operand that does not begin with '-' *)
Lemma neg_graft_good k : good 13 k -> lneg k = false -> good 13 (neg_graft k).
Proof.
  induction k as [k N|o' l r E IH] using (spine_ind BMul); intros [W L] Hn.
  - rewrite (neg_graft_stop _ N). rewrite (lneg_stop _ N) in Hn. change (bprec BMul) with 13 in N.
    split; [|simpl; unfold PREC_UNARY; lia]. cbn [wp]. rewrite W, Hn, andb_true_r. apply N.leb_le. unfold PREC_UNARY. lia.
  - rewrite (neg_graft_go _ _ _ E). rewrite (lneg_go _ _ _ E) in Hn. apply wp_bin in W as (Wl & Wr & Ll & Lr).
    change (bprec BMul) with 13 in E.
    apply good_bin; [exact E | apply IH; [split; [exact Wl | lia] | exact Hn] | exact Wr | lia].
Qed.

(* text.substr(1) after a leading '-', inside a sum or a product *)
Lemma strip_neg_good : forall t t' n, 12 <= n <= 13 -> good n t -> strip_neg t = Some t' -> good n t'.
Proof.
  intros t t' n Hn G Hs. revert t t' Hs n Hn G.
  apply (strip_neg_ind (fun t t' => forall n, 12 <= n <= 13 -> good n t -> good n t'));
    [intros a|intros o l l' r E IH|intros nl c c' a b E IH]; intros n Hn [W L].
  - simpl in W. rewrite !andb_true_iff, N.leb_le in W. unfold PREC_UNARY in W. split; [tauto | lia].
  - apply wp_bin in W as (W1 & W2 & L1 & L2). simpl in L. pose proof (bprec_vals o) as (_ & _ & _ & Hb).
    destruct (IH (bprec o)) as [W' L']; [lia | split; assumption |].
    split; [apply wp_bin; auto | exact L].
  - simpl in L. unfold PREC_COND in L. lia.
Qed.

Lemma strip_neg_none_lneg : forall t, 13 <= level t -> wp t = true -> strip_neg t = None -> lneg t = false.
Proof.
  induction t as [n|txt bits|s|t IHt|t IHt|o t1 IHt1 t2 IHt2|nl c IHc x IHx y IHy|f t IHt|f|nl t IHt];
    intros Hl Hw Hs; simpl in *; try reflexivity; try discriminate.
  destruct (bprec o =? 13) eqn:E; [|reflexivity]. apply N.eqb_eq in E.
  destruct (strip_neg t1); [discriminate|].
  apply wp_bin in Hw as (W1 & _ & L1 & _). apply IHt1; auto. lia.
Qed.

Lemma chain_mul_good : forall r f, good 13 f -> Forall (good 13) r ->
  good 13 (chain BMul f r) /\ lneg (chain BMul f r) = lneg f.
Proof.
  unfold chain. induction r as [|x r IH]; intros f Hf Hr; simpl; [split; auto|].
  inversion Hr; subst. destruct (IH (graft BMul f x)) as [G N]; [apply (graft_good BMul) | |]; auto.
  split; [exact G | rewrite N; apply graft_lneg].
Qed.

Lemma signed_good b k : good 13 k -> (b = true -> lneg k = false) -> good 13 (signed b k).
Proof. destruct b; [intros G H; apply neg_graft_good; auto | auto]. Qed.

Lemma numer_good l : Forall (good 13) l ->
  good 13 (numer_of l) /\ lneg (numer_of l) = match l with [] => false | f :: _ => lneg f end.
Proof.
  intros [|f r Hf Hr]; [|exact (chain_mul_good r f Hf Hr)].
  split; [apply good_primary; [lia | reflexivity ..] | reflexivity].
Qed.

Lemma over_good s ds : good 13 s -> Forall (good 14) ds -> good 13 (over s ds) /\ lneg (over s ds) = lneg s.
Proof.
  intros Hs [|d1 r H1 Hr]; [auto|].
  assert (E : exists dv, over s (d1 :: r) = CBin BDiv s dv /\ good 14 dv).
  { destruct Hr as [|d2 r H2 Hr]; [exists d1; auto|]. eexists. split; [reflexivity|]. apply good_primary; [lia | | reflexivity].
    destruct (chain_mul_good (d2 :: r) d1) as [[W _] _]; [| |exact W].
    - apply good_le with (2 := H1). lia.
    - apply Forall_impl with (2 := Forall_cons _ H2 Hr). intros a. apply good_le. lia. }
  destruct E as (dv & -> & [Wd Ld]). split; [apply good_bin; auto; lia | reflexivity].
Qed.

Definition Inv (e : expr) (t : cexp) : Prop :=
  wp t = true /\ clev e <= level t /\ 9 <= level t /\ (lmin e = false -> lneg t = false).

Lemma clev_le16 : forall e, clev e <= 16.
Proof.
  induction e; cbn [clev]; try lia.
  - destruct n; simpl; lia.
  - destruct (is_E e1); [lia|]. destruct (is_num_int e2 (-1)); lia.
  - destruct (code =? TC_Not); [lia|]. destruct (code =? TC_UnevaluatedExpr); [exact IHe | lia].
  - destruct (is_rel_eq code); [lia|]. destruct (is_relational code); lia.
Qed.

(* calls, parentheses, identifiers and non-negative literals can stand anywhere *)
Lemma Inv16 : forall e t, wp t = true -> level t = 16 -> Inv e t.
Proof. intros e t W L. pose proof (clev_le16 e). pose proof (lneg_primary t L). repeat split; auto; lia. Qed.

Lemma flt_lit_props : forall cf neg bits, good 14 (flt_lit cf neg bits) /\ lneg (flt_lit cf neg bits) = neg.
Proof. intros. unfold flt_lit, good. destruct neg; simpl; unfold PREC_UNARY, PREC_PRIMARY; repeat split; lia. Qed.

Lemma lit_of_Z_props : forall cf z, good 14 (lit_of_Z cf z) /\ lneg (lit_of_Z cf z) = (z <? 0)%Z.
Proof. intros. unfold lit_of_Z. destruct z; apply flt_lit_props. Qed.

Lemma int_lit_props : forall cf z, good 14 (int_lit cf z) /\ lneg (int_lit cf z) = (z <? 0)%Z.
Proof.
  intros. unfold int_lit. destruct (fl cf || negb (fits_slong z)); [apply lit_of_Z_props|].
  destruct z; unfold good; simpl; unfold PREC_UNARY, PREC_PRIMARY; repeat split; lia.
Qed.

Lemma num_clev_ge n : 13 <= num_clev n.
Proof. destruct n; simpl; lia. Qed.

Lemma print_num_inv : forall cf n t, print_num cf n = Ok t ->
  good (num_clev n) t /\ (num_lmin n = false -> lneg t = false).
Proof.
  intros cf n t H. destruct n; simpl in H; try discriminate.
  - injection H as <-. destruct (int_lit_props cf z) as [A C]. rewrite C. split; [exact A | auto].
  - injection H as <-. destruct (lit_of_Z_props cf n) as [A C]. destruct (lit_of_Z_props cf (Zpos d)) as [[A' _] _].
    cbn [num_clev]. split; [apply good_bin; [reflexivity | apply good_le with (2 := A); lia | exact A' | reflexivity]|].
    cbn [lneg bprec N.eqb Pos.eqb num_lmin]. rewrite C. auto.
  - injection H as <-. destruct (flt_lit_props cf (dbl_sign bits) (dbl_abs bits)) as [A C].
    unfold lit_of_dbl. rewrite C. split; [exact A | auto].
  - destruct (dir <? 0)%Z eqn:E; [|destruct (0 <? dir)%Z; [|discriminate]]; injection H as <-;
      unfold good; simpl; rewrite ?E; unfold PREC_UNARY, PREC_PRIMARY; repeat split; (lia || discriminate).
  - injection H as <-. split; [apply good_primary; [simpl; lia | reflexivity ..] | reflexivity].
Qed.

Lemma plt_num_inv : forall cf v t, plt_num cf v SP_Mul = Ok t -> good 13 t.
Proof.
  intros cf v t H. apply plt_num_Ok in H as (u & E & ->). destruct (print_num_inv _ _ _ E) as [[W L] _].
  pose proof (num_clev_ge v). unfold paren_if. destruct (num_precedence v <? SP_Mul); [apply good_primary; [lia | exact W | reflexivity] | split; [exact W | lia]].
Qed.

Fixpoint first_lmin (l : list (expr * expr)) : bool :=
  match l with
  | [] => false
  | (bs, ex) :: r =>
      if is_den bs ex then first_lmin r
      else is_num_int ex 1 && (SP_Mul <=? precedence bs) && lmin bs
  end.
Lemma lmin_mul : forall c d, lmin (EMul c d) = negb (num_is c 1) || first_lmin d.
Proof. intros. induction d as [|[bs ex] r IH]; reflexivity. Qed.

(* the negation of a negative exponent is not -1 *)
Lemma neg_rational_pos : forall ex nex, neg_rational_exp ex = Some nex ->
  is_num_int (ENum nex) (-1) = false /\ cguard (ENum nex) = true.
Proof.
  intros ex nex H. destruct ex; try discriminate. destruct n; try discriminate; simpl in H.
  - destruct (z <? 0)%Z eqn:E; [|discriminate]. injection H as <-. simpl. split; [|reflexivity].
    apply Z.eqb_neq. apply Z.ltb_lt in E. lia.
  - destruct (n <? 0)%Z; [|discriminate]. injection H as <-. split; reflexivity.
Qed.

Lemma num_is_excl : forall c, num_is c 1 = true -> num_is c (-1) = false.
Proof. destruct c; simpl; try discriminate. intros H. apply Z.eqb_eq in H. subst. reflexivity. Qed.

Lemma rel_op_prec : forall code, is_relational code = true ->
  bprec (rel_op code) = if is_rel_eq code then 9 else 10.
Proof.
  intros code H. unfold rel_op, is_rel_eq. unfold is_relational in H.
  destruct (code =? TC_Equality); [reflexivity|].
  destruct (code =? TC_Unequality); [reflexivity|].
  destruct (code =? TC_LessThan); reflexivity.
Qed.

(* f(a, b): the comma binds weakest, so any two operands of level 9 or more fit *)
Lemma call2_wp nm a b : good 9 a -> good 9 b -> wp (CCall nm (CBin BComma a b)) = true.
Proof. intros [Wa La] [Wb Lb]. cbn [wp]. apply wp_bin. simpl. repeat split; auto; lia. Qed.

Section Node.
  Variable cf : cfg.
  Variable pr : expr -> res cexp.
  Hypothesis IHpr : forall x t, pr x = Ok t -> cguard x = true -> Inv x t.

  Lemma pr_good9 x t : pr x = Ok t -> cguard x = true -> good 9 t.
  Proof. intros E G. destruct (IHpr _ _ E G) as (W & _ & L & _). split; assumption. Qed.

  Lemma call1_good nm u tu : pr u = Ok tu -> cguard u = true -> good 16 (CCall nm tu).
  Proof. intros E G. apply good_primary; [lia | exact (proj1 (IHpr _ _ E G)) | reflexivity]. Qed.

  Lemma plt_inv : forall x p need t, plt pr x p = Ok t -> cguard x = true ->
    pos_lt x p need = true -> need <= 16 ->
    good need t /\ 9 <= level t /\ ((precedence x <? p) = true \/ lmin x = false -> lneg t = false).
  Proof.
    intros x p need t H G P N. apply plt_Ok in H as (u & E & ->).
    destruct (IHpr _ _ E G) as (W & L & L9 & M). unfold pos_lt in P.
    destruct (precedence x <? p); unfold good; simpl in *.
    - unfold PREC_PRIMARY. repeat split; auto; lia.
    - apply N.leb_le in P. repeat split; auto; try lia. intros [F|F]; [discriminate | auto].
  Qed.

  Lemma ple_inv : forall x p need t, ple pr x p = Ok t -> cguard x = true ->
    pos_le x p need = true -> need <= 16 -> good need t.
  Proof.
    intros x p need t H G P N. apply ple_Ok in H as (u & E & ->).
    destruct (IHpr _ _ E G) as (W & L & _). unfold pos_le in P.
    destruct (precedence x <=? p); unfold good; simpl in *.
    - unfold PREC_PRIMARY. split; auto; lia.
    - apply N.leb_le in P. split; auto; lia.
  Qed.

  Lemma print_pow_inv : forall a b t, print_pow cf pr a b = Ok t -> cguard a = true -> cguard b = true ->
    pow_ok a b = true -> good (N.max 13 (clev (EPow a b))) t /\ lneg t = false.
  Proof.
    intros a b t H Ga Gb P. unfold print_pow in H. unfold pow_ok in P. cbn [clev].
    destruct (is_E a).
    { apply bind_Ok in H as (tb & E & [= <-]). split; [exact (call1_good _ _ _ E Gb) | reflexivity]. }
    destruct (is_num_int b (-1)).
    { apply bind_Ok in H as (ta & E & [= <-]). destruct (ple_inv _ _ 14 _ E Ga P) as [W L]; [lia|].
      destruct (int_lit_props cf 1) as [A C].
      split; [apply good_bin; [reflexivity | apply good_le with (2 := A); lia | exact W | simpl; lia]|].
      cbn [lneg bprec N.eqb Pos.eqb]. exact C. }
    destruct (is_rat b 1 2).
    { apply bind_Ok in H as (ta & E & [= <-]). split; [exact (call1_good _ _ _ E Ga) | reflexivity]. }
    destruct (c99 cf && is_rat b 1 3).
    { apply bind_Ok in H as (ta & E & [= <-]). split; [exact (call1_good _ _ _ E Ga) | reflexivity]. }
    apply bind_Ok in H as (ta & E & H). apply bind_Ok in H as (tb & E' & [= <-]).
    split; [|reflexivity]. apply good_primary; [lia | | reflexivity].
    apply call2_wp; [exact (pr_good9 _ _ E Ga) | exact (pr_good9 _ _ E' Gb)].
  Qed.

  Lemma add_term_inv : forall k v t, add_term cf pr k v = Ok t -> cguard k = true ->
    add_term_ok k v = true -> good 12 t.
  Proof using IHpr.
    intros k v t H G A. unfold add_term in H. unfold add_term_ok in A.
    destruct (num_is v 1); [apply (plt_inv _ _ 12 _ H G A); lia|].
    apply (good_le 12 13); [lia|]. destruct (num_is v (-1)).
    - apply bind_Ok in H as (u & E & [= <-]). apply andb_true_iff in A as [A1 A2].
      destruct (plt_inv _ _ 13 _ E G A1) as (W & _ & M); [lia|].
      apply neg_graft_good; [exact W|]. apply M. apply orb_true_iff in A2. rewrite negb_true_iff in A2. exact A2.
    - apply bind_Ok in H as (c & E & H). apply bind_Ok in H as (u & E' & [= <-]).
      apply (graft_good BMul); [exact (plt_num_inv _ _ _ E) | apply (plt_inv _ _ 13 _ E' G A); lia].
  Qed.

  Lemma add_join_inv : forall acc t, (forall a, acc = Some a -> good 12 a) -> good 12 t -> good 12 (add_join acc t).
  Proof.
    intros [a|] t Ha Ht; [|exact Ht]. specialize (Ha a eq_refl). unfold add_join.
    destruct (strip_neg t) as [t'|] eqn:E.
    - apply (graft_good BSub); [exact Ha | apply (strip_neg_good t t' 12); [lia | exact Ht | exact E]].
    - apply (graft_good BAdd); assumption.
  Qed.

  Lemma add_terms_inv : forall l acc t, add_terms cf pr acc l = Ok t ->
    (forall a, acc = Some a -> good 12 a) ->
    (forall p, In p l -> cguard (fst p) = true /\ supported_num (snd p) = true /\ add_term_ok (fst p) (snd p) = true) ->
    good 12 t.
  Proof.
    refine (add_terms_ind cf pr _ _ _).
    - intros a Ha _. exact (Ha a eq_refl).
    - intros acc k v r u t E IH Ha Hl. destruct (Hl (k, v) (or_introl eq_refl)) as (G & _ & A).
      apply IH; [|intros p Hp; apply Hl; right; exact Hp].
      intros a [= <-]. apply add_join_inv; [exact Ha | exact (add_term_inv _ _ _ E G A)].
  Qed.

  Lemma print_add_inv : forall c d t, print_add cf pr c d = Ok t -> cguard (EAdd c d) = true -> Inv (EAdd c d) t.
  Proof.
    intros c d t H G. pose proof (cguard_add c d G) as Hl. unfold print_add in H.
    assert (G12 : good 12 t).
    { destruct (num_is c 0).
      - apply (add_terms_inv _ _ _ H); [discriminate | exact Hl].
      - apply bind_Ok in H as (tc & E & H). apply (add_terms_inv _ _ _ H); [|exact Hl].
        intros a [= <-]. pose proof (num_clev_ge c). apply good_le with (2 := proj1 (print_num_inv _ _ _ E)). lia. }
    destruct G12 as [W L]. split; [exact W|]. cbn [clev lmin]. repeat split; lia.
  Qed.

  Lemma mul_factors_inv : forall d ns ds, mul_factors cf pr d = Ok (ns, ds) ->
    (forall p, In p d -> cguard (fst p) = true /\ cguard (snd p) = true /\ mul_factor_ok (fst p) (snd p) = true) ->
    Forall (good 13) ns /\ Forall (good 14) ds /\
    (first_lmin d = false -> match ns with f :: _ => lneg f = false | [] => True end).
  Proof.
    refine (mul_factors_ind cf pr _ _ _).
    { intros _. repeat split; constructor. }
    intros bs ex r u ns ds E IH Hd.
    destruct (Hd (bs, ex) (or_introl eq_refl)) as (Gb & Ge & Ok1). cbn [fst snd] in Gb, Ge, Ok1.
    destruct IH as (A & B & C); [intros p Hp; apply Hd; right; exact Hp|].
    unfold print_factor in E. unfold mul_factor_ok in Ok1. cbn [first_lmin]. unfold is_den. unfold den_exp in *.
    destruct (if is_E bs then None else neg_rational_exp ex) as [nex|] eqn:En.
    - (* denominator *)
      assert (EE : is_E bs = false) by (destruct (is_E bs); [discriminate | reflexivity]).
      rewrite EE in En. destruct (neg_rational_pos _ _ En) as [N1 N2].
      repeat split; auto. constructor; [|exact B]. destruct (num_is nex 1).
      + apply (plt_inv _ _ 14 _ E Gb Ok1). lia.
      + destruct (print_pow_inv _ _ _ E Gb N2 Ok1) as [W _]. cbn [clev] in W. rewrite EE, N1 in W.
        apply good_le with (2 := W). lia.
    - (* numerator *)
      destruct (is_num_int ex 1).
      + destruct (plt_inv _ _ 13 _ E Gb Ok1) as (W & _ & M); [lia|].
        repeat split; auto. intros F. apply M. simpl in F. destruct (SP_Mul <=? precedence bs) eqn:Ep.
        * right. exact F.
        * left. apply N.ltb_lt. apply N.leb_gt in Ep. exact Ep.
      + destruct (print_pow_inv _ _ _ E Gb Ge Ok1) as [W M].
        repeat split; auto. constructor; [apply good_le with (2 := W); lia | exact A].
  Qed.

  Lemma print_mul_inv : forall c d t, print_mul cf pr c d = Ok t -> cguard (EMul c d) = true -> Inv (EMul c d) t.
  Proof.
    intros c d t H G. apply cguard_mul in G as [Hd G3]. rewrite lmin_mul in G3. simpl in G3.
    apply print_mul_Ok in H as (cl & ns & ds & Hcl & E & ->).
    destruct (mul_factors_inv _ _ _ E Hd) as (A & B & C).
    assert (Fcl : Forall (good 13) cl).
    { destruct (num_is c (-1) || num_is c 1); [subst; constructor|].
      destruct Hcl as (u & Eu & ->). constructor; [exact (plt_num_inv _ _ _ Eu) | constructor]. }
    destruct (numer_good (cl ++ ns)) as [Gn Nn]; [apply Forall_app; auto|].
    (* a leading '-' of the numerator can only be that of the first factor, when no coefficient is printed *)
    assert (Hl : num_is c (-1) || num_is c 1 = true -> first_lmin d = false -> lneg (numer_of (cl ++ ns)) = false).
    { intros Q F. rewrite Q in Hcl. subst cl. rewrite Nn. simpl. destruct ns; [reflexivity | exact (C F)]. }
    destruct (over_good (signed (num_is c (-1)) (numer_of (cl ++ ns))) ds) as [[Wt Lt] Nt]; [|exact B|].
    { apply signed_good; [exact Gn|]. intros Em. apply Hl; [rewrite Em; reflexivity | exact (G3 Em)]. }
    split; [exact Wt|]. cbn [clev]. repeat split; try lia. rewrite Nt, lmin_mul. intros F.
    apply orb_false_iff in F as [F1 F2]. apply negb_false_iff in F1.
    rewrite (num_is_excl _ F1). apply Hl; [rewrite F1; apply orb_true_r | exact F2].
  Qed.

  Lemma mapM_inv : forall l ts, mapM pr l = Ok ts -> forallb cguard l = true -> Forall (good 9) ts.
  Proof.
    apply mapM_Forall. exact pr_good9.
  Qed.

  Lemma chain_plain_good : forall o r f, good (bprec o) f -> Forall (good (bprec o + 1)) r ->
    good (bprec o) (chain_plain o f r).
  Proof.
    intros o. apply chain_plain_ind. intros a b Ha [Wb Lb]. apply good_bin; auto. lia.
  Qed.

  (* operands in parentheses, joined by any operator *)
  Lemma chain_primary_wp : forall o f r, good 16 f -> Forall (good 16) r -> wp (chain_plain o f r) = true.
  Proof.
    intros o f r Hf Hr. pose proof (bprec_vals o). refine (proj1 (chain_plain_good o r f _ _)).
    - apply good_le with (2 := Hf). lia.
    - apply Forall_impl with (2 := Hr). intros a. apply good_le. lia.
  Qed.

  Lemma call_wp : forall name ts, Forall (good 9) ts -> wp (call name ts) = true /\ level (call name ts) = 16.
  Proof.
    intros name ts F. unfold call, comma_args. destruct F as [|a r Ha Hr]; [split; reflexivity|].
    split; [|reflexivity]. cbn [wp]. apply (chain_plain_good BComma).
    - apply good_le with (2 := Ha). simpl. lia.
    - apply Forall_impl with (2 := Hr). intros b. apply good_le. simpl. lia.
  Qed.

  Lemma reduce_inv : forall fuel name l t, reduce fuel name l = Ok t -> Forall (good 9) l -> good 9 t.
  Proof.
    intros fuel name. apply reduce_ind. intros a b Ha Hb.
    apply good_primary; [lia | exact (call2_wp _ _ _ Ha Hb) | reflexivity].
  Qed.

  Lemma sign_tree_wp : forall ta, wp ta = true -> 10 <= level ta -> wp (sign_tree cf ta) = true.
  Proof.
    intros ta W L. unfold sign_tree.
    destruct (flt_lit_props cf false 0) as [[Z1 Z2] _].
    destruct (flt_lit_props cf false 4607182418800017408) as [[O1 _] _].
    destruct (flt_lit_props cf true 4607182418800017408) as [[M1 _] _].
    (* everything else stands in parentheses: only the two comparisons ta == 0.0 and ta < 0.0 ask
       something of ta *)
    assert (C : forall o, bprec o <= 10 -> wp (CBin o ta (flt_lit cf false 0)) = true).
    { intros o Ho. apply wp_bin. repeat split; auto; lia. }
    remember (CBin BEq ta (flt_lit cf false 0)) as c1 eqn:E1.
    remember (CBin BLt ta (flt_lit cf false 0)) as c2 eqn:E2.
    cbn [wp level]. subst c1 c2. rewrite !C, Z1, O1, M1 by (simpl; lia). reflexivity.
  Qed.

  Lemma pw_tree_wp : forall l t, pw_tree pr l = Ok t ->
    forallb (fun p => cguard (fst p) && cguard (snd p)) l = true -> wp t = true /\ level t = 16.
  Proof.
    refine (pw_tree_ind pr _ _ _).
    - intros e te E G. simpl in G. rewrite !andb_true_iff in G. split; [|reflexivity].
      exact (proj1 (IHpr _ _ E (proj1 (proj1 G)))).
    - intros e c r tc te tr Ec Ee IH G. cbn [forallb fst snd] in G. rewrite !andb_true_iff in G.
      destruct G as [[Ge Gc] Gr]. destruct (IH Gr) as [Wr Lr]. split; [|reflexivity].
      cbn [wp level]. rewrite (proj1 (IHpr _ _ Ec Gc)), (proj1 (IHpr _ _ Ee Ge)), Wr, Lr. reflexivity.
  Qed.

  Lemma print_f1_inv code a t : print_node cf pr (EF1 code a) = Ok t -> cguard (EF1 code a) = true ->
    Inv (EF1 code a) t.
  Proof.
    intros H G. cbn [print_node] in H. cbn [cguard] in G. apply andb_true_iff in G as [Ga Gs].
    destruct (mem_code code rewrite_trig_codes); [discriminate|].
    destruct (code =? TC_Not) eqn:ENot.
    { apply bind_Ok in H as (ta & E & [= <-]). destruct (IHpr _ _ E Ga) as [W _].
      split; [cbn [wp level]; rewrite W; reflexivity|]. cbn [clev lmin level lneg]. rewrite ENot.
      unfold PREC_UNARY. repeat split; lia. }
    destruct (code =? TC_Sign).
    { apply bind_Ok in H as (ta & E & [= <-]). destruct (IHpr _ _ E Ga) as (W & L & _).
      apply N.leb_le in Gs. apply Inv16; [apply sign_tree_wp; auto; lia | reflexivity]. }
    destruct (code =? TC_UnevaluatedExpr) eqn:EU.
    { destruct (IHpr _ _ H Ga) as (W & L & L9 & N). split; [exact W|]. cbn [clev lmin]. rewrite ENot, EU.
      repeat split; auto. }
    (* the three tables of function names all lead to the same call *)
    destruct (lookup code code_one_arg) as [nm|];
      [|destruct (if c99 cf then lookup code c99_one_arg else None) as [nm|];
        [|destruct (lookup code str_names) as [nm|]; [|discriminate]]];
      apply bind_Ok in H as (ta & E & [= <-]);
      (apply Inv16; [exact (proj1 (call1_good _ _ _ E Ga)) | reflexivity]).
  Qed.

  Lemma print_f2_inv code a b t : print_node cf pr (EF2 code a b) = Ok t -> cguard (EF2 code a b) = true ->
    Inv (EF2 code a b) t.
  Proof.
    intros H G. cbn [print_node] in H. cbn [cguard] in G. rewrite !andb_true_iff in G. destruct G as [[Ga Gb] Gr].
    destruct (is_relational code) eqn:ER.
    { apply bind_Ok in H as (ta & E & H). apply bind_Ok in H as (tb & E' & [= <-]).
      pose proof (rel_op_prec code ER) as PR.
      (* the guard asks level p of the left and p + 1 of the right operand, p the operator's level *)
      assert (Q : good (bprec (rel_op code)) ta /\ good (bprec (rel_op code) + 1) tb).
      { rewrite PR. destruct (is_rel_eq code); apply andb_true_iff in Gr as [R1 R2].
        - split; [apply (ple_inv _ _ 9 _ E Ga R1) | apply (ple_inv _ _ 10 _ E' Gb R2)]; lia.
        - split; [apply (ple_inv _ _ 10 _ E Ga R1) | apply (ple_inv _ _ 11 _ E' Gb R2)]; lia. }
      destruct Q as [Qa [Wb Lb]].
      destruct (good_bin _ (rel_op code) ta tb eq_refl Qa Wb) as [Wt Lt]; [lia|].
      split; [exact Wt|]. cbn [clev level lmin lneg]. rewrite ER, PR.
      destruct (is_rel_eq code); repeat split; try lia; intros; reflexivity. }
    destruct (lookup code str_names) as [nm|]; [|discriminate].
    apply bind_Ok in H as (ta & E & H). apply bind_Ok in H as (tb & E' & [= <-]).
    apply Inv16; [|reflexivity]. apply call2_wp; [exact (pr_good9 _ _ E Ga) | exact (pr_good9 _ _ E' Gb)].
  Qed.

  Lemma print_fn_inv code args t : print_node cf pr (EFN code args) = Ok t -> cguard (EFN code args) = true ->
    Inv (EFN code args) t.
  Proof.
    intros H G. cbn [print_node] in H. cbn [cguard] in G.
    destruct ((code =? TC_Max) || (code =? TC_Min)).
    { destruct (Nat.ltb (List.length args) 2) eqn:EL; [discriminate|]. apply Nat.ltb_ge in EL.
      apply bind_Ok in H as (ts & E & H). pose proof (mapM_inv _ _ E G) as F.
      rewrite <- (mapM_length _ _ _ E) in EL.
      destruct (reduce_call _ _ _ _ H EL) as [x ->].
      apply Inv16; [exact (proj1 (reduce_inv _ _ _ _ H F)) | reflexivity]. }
    destruct ((code =? TC_And) || (code =? TC_Or)).
    { apply bind_Ok in H as (ts & E & H). pose proof (mapM_inv _ _ E G) as F.
      destruct F as [|f r [Wf _] Fr]; [discriminate|]. simpl in H. injection H as <-.
      apply Inv16; [|reflexivity]. cbn [wp]. apply chain_primary_wp; [split; [exact Wf | apply N.le_refl]|].
      apply Forall_map. apply Forall_impl with (2 := Fr). intros a [Wa _]. split; [exact Wa | apply N.le_refl]. }
    destruct (code =? TC_Xor).
    { apply bind_Ok in H as (ts & E & H). pose proof (mapM_inv _ _ E G) as F.
      destruct F as [|f r [Wf L9f] Fr]; [discriminate|]. simpl in H. injection H as <-.
      assert (X : forall a, good 9 a -> good 16 (CParen false (CBin BNe (CParen false a) (CInt 0)))).
      { intros a [Wa _]. split; [simpl; rewrite Wa; reflexivity | apply N.le_refl]. }
      apply Inv16; [|reflexivity]. cbn [wp]. apply chain_primary_wp; [exact (X f (conj Wf L9f))|].
      apply Forall_map. apply Forall_impl with (2 := Fr). exact X. }
    destruct (code =? TC_FiniteSet); [discriminate|].
    destruct (lookup code str_names) as [nm|]; [|discriminate].
    apply bind_Ok in H as (ts & E & [= <-]).
    destruct (call_wp (mf cf nm) ts (mapM_inv _ _ E G)) as [W L]. apply Inv16; assumption.
  Qed.

  (* identifiers, constants, function calls and piecewise trees are primary; the other node kinds
     have a lemma each above; the guard rejects the rest *)
  Lemma print_node_inv : forall e t, print_node cf pr e = Ok t -> cguard e = true -> Inv e t.
  Proof using IHpr.
    intros e t H G. destruct e; try (cbn [cguard] in G; discriminate G).
    - destruct (print_num_inv _ _ _ H) as [[W L] D]. pose proof (num_clev_ge n). repeat split; auto. lia.
    - injection H as <-. apply Inv16; reflexivity.
    - injection H as <-. apply Inv16; reflexivity.
    - cbn [print_node] in H.
      assert (Hlit : forall z, wp (if fl cf then lit_of_Z cf z else int_lit cf z) = true).
      { intros z. destruct (fl cf); [exact (proj1 (proj1 (lit_of_Z_props cf z))) | exact (proj1 (proj1 (int_lit_props cf z)))]. }
      destruct (bytes_eqb name name_E); [|destruct (bytes_eqb name name_pi)];
        injection H as <-; apply Inv16; try reflexivity; apply Hlit.
    - exact (print_add_inv _ _ _ H G).
    - exact (print_mul_inv _ _ _ H G).
    - cbn [cguard] in G. rewrite !andb_true_iff in G. destruct G as [[Ga Gb] P].
      destruct (print_pow_inv _ _ _ H Ga Gb P) as [[W L] N].
      repeat split; auto; lia.
    - exact (print_f1_inv _ _ _ H G).
    - exact (print_f2_inv _ _ _ _ H G).
    - exact (print_fn_inv _ _ _ H G).
    - cbn [cguard] in G. apply bind_Ok in H as (ts & E & [= <-]).
      destruct (call_wp name ts (mapM_inv _ _ E G)) as [W L]. apply Inv16; assumption.
    - cbn [cguard] in G. destruct (pw_tree_wp _ _ H G) as [W L]. apply Inv16; assumption.
    - injection H as <-. apply Inv16; reflexivity.
  Qed.
End Node.

Theorem ctree_fuel_inv : forall cf f e t, ctree_fuel cf f e = Ok t -> cguard e = true -> Inv e t.
Proof.
  intros cf. induction f as [|f IH]; intros e t H G; [discriminate|].
  exact (print_node_inv cf (ctree_fuel cf f) IH e t H G).
Qed.

(* every tree printed for a guarded expression is well-parenthesised *)
Theorem ctree_wp : forall cf e t, cguard e = true -> ctree cf e = Ok t -> wp t = true.
Proof. intros cf e t G H. exact (proj1 (ctree_fuel_inv _ _ _ _ H G)). Qed.

(* THE PARENTHESISATION THEOREM for the printers: the emitted text of a guarded expression, read back
   by the reference reader of C expressions, is the printed tree *)
Theorem cprint_parse_guarded : forall cf e t, cguard e = true -> ctree cf e = Ok t ->
  read_back t = Some (erase t).
Proof. intros cf e t G H. apply parse_render. exact (ctree_wp cf e t G H). Qed.
