From SE Require Import C15.CSpec.
Local Open Scope N_scope.
(* concrete non-trivial expressions satisfy the hypotheses of the guarded theorems *)
Definition x := ESym [120].
Definition y := ESym [121].
Definition z := ESym [122].
Definition cfd := {| c99 := true; fl := false |}.
(* y + 2/x - (2/3)*(x + z)/(y*z) - sqrt(x)*(-y) : sums inside products, a quotient with two denominator
   factors, the 2*1/x juxtaposition, negative and rational coefficients *)
Definition e1 : expr :=
  EAdd (NInt 0)
    [(y, NInt 1);
     (EPow x (ENum (NInt (-1))), NInt 2);
     (EMul (NInt 1) [(EAdd (NInt 0) [(x, NInt 1); (z, NInt 1)], ENum (NInt 1)); (y, ENum (NInt (-1))); (z, ENum (NInt (-1)))], NRat (-2) 3);
     (EMul (NInt 1) [(x, ENum (NRat 1 2)); (y, ENum (NInt 1))], NInt 1)].
(* Piecewise((x/y, x < y), (max(x, y, z)**2, True)) *)
Definition e2 : expr :=
  EPw [(EMul (NInt 1) [(x, ENum (NInt 1)); (y, ENum (NInt (-1)))], EF2 TC_StrictLessThan x y);
       (EPow (EFN TC_Max [x; y; z]) (ENum (NInt 2)), EBool true)].

Example guard_e1 : cguard e1 = true /\ nguard cfd e1 = true /\ is_ok (ctree cfd e1) = true.
Proof. vm_compute. repeat split; reflexivity. Qed.
Example guard_e2 : cguard e2 = true /\ nguard cfd e2 = true /\ is_ok (ctree cfd e2) = true.
Proof. vm_compute. repeat split; reflexivity. Qed.
(* a relational whose operand is a relational: parenthesised by the printer *)
Definition e3 : expr := EF2 TC_StrictLessThan (EF2 TC_Equality x y) z.
Example guard_e3 : cguard e3 = true /\ is_ok (ctree cfd e3) = true.
Proof. vm_compute. split; reflexivity. Qed.
(* the text of e1 *)
Example text_e1 : match ctree cfd e1 with Ok t => wp t && match ccode_reads_back t with Some true => true | _ => false end | _ => false end = true.
Proof. vm_compute. reflexivity. Qed.
(* the guards are not trivially true: they reject the regrouping / integer-division inputs *)
Example guard_rejects :
  cguard (EAdd (NInt 0) [(EF1 TC_UnevaluatedExpr (EAdd (NInt 0) [(x, NInt 1); (y, NInt 1)]), NInt 2)]) = false /\
  nguard cfd (EMul (NInt 3) [(EPw [(ENum (NInt 1), EF2 TC_StrictLessThan x (ENum (NInt 0))); (ENum (NInt 2), EBool true)], ENum (NInt (-1)))]) = false.
Proof. vm_compute. split; reflexivity. Qed.
