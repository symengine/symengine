(* C31 -- specification vocabulary for the series theorems.

   * formal power series over Q are coefficient functions [ps = nat -> Q] (PS.v): ring
     operations (Cauchy product), [eqn n a b] = congruence modulo x^n, derivative [pD],
     integral [pI];
   * [den p] is the power series denoted by a model polynomial (Sem.v), [wf p] says that
     the association list is a std::map (strictly increasing keys) without negative keys;
   * the boolean guards below are the hypotheses of the guarded theorems.

   The transcendental functions are specified by their first-order initial value problems
   (y(0) and y' = F(y) modulo x^(n-1)); [ode_unique] shows that such a problem has at most one
   solution modulo x^n, so the coefficients computed by the model are the Taylor
   coefficients of the analytic function solving the same problem (that last bridge, from
   formal to convergent series, is the standard one and is not formalised). *)
From Coq Require Import QArith Lia List ZArith NArith Bool.
From SE Require Export C31.SeriesModel C31.PS C31.Sem.
Local Open Scope Z_scope.

Fixpoint sortedb (l : poly) : bool :=
  match l with
  | [] => true
  | (k, _) :: r => match r with [] => true | (k', _) :: _ => (k <? k') && sortedb r end
  end.
(* a std::map with non-negative keys: a truncated power series *)
Definition wfb (l : poly) : bool :=
  sortedb l && match l with [] => true | (k, _) :: _ => 0 <=? k end.
(* constant term c0 *)
Definition const0 (s : poly) : bool := qis0 (find_cf s 0).
Definition const1 (s : poly) : bool := Qeq_bool (find_cf s 0) 1.
Definition prec_ok (prec : N) : bool := ((0 <? prec) && (prec <? 2147483648))%N.

Lemma sortedb_keys l : sortedb l = true ->
  match l with [] => True | (k, _) :: r => keysP (fun k' => k < k') r end /\ sorted l.
Proof.
  induction l as [|[k v] r IH]; simpl; intros H; [split; exact I|].
  destruct r as [|[k' v'] r'].
  - split; [constructor|split; [constructor|exact I]].
  - apply andb_prop in H. destruct H as [H1 H2]. apply Z.ltb_lt in H1.
    destruct (IH H2) as [K S]. split.
    + constructor; [simpl; exact H1|]. apply (keysP_lt k'); [exact K|lia].
    + split; [|exact S]. constructor; [simpl; exact H1|]. apply (keysP_lt k'); [exact K|lia].
Qed.

Lemma wfb_wf l : wfb l = true -> wf l.
Proof.
  unfold wfb. intros H. apply andb_prop in H. destruct H as [H1 H2].
  destruct (sortedb_keys l H1) as [K S]. split; [exact S|].
  destruct l as [|[k v] r]; [constructor|].
  apply Z.leb_le in H2. constructor; [simpl; exact H2|].
  eapply keysP_impl; [|exact K]. intros k0 Hk0; simpl in Hk0; lia.
Qed.

Lemma const0_coef s : wfb s = true -> const0 s = true -> coef s 0 == 0.
Proof.
  intros W H. apply wfb_wf in W. rewrite <- (find_cf_coef s 0 (proj1 W)).
  apply qis0_true. exact H.
Qed.
Lemma const0_false_coef s : wfb s = true -> const0 s = false -> ~ coef s 0 == 0.
Proof.
  intros W H. apply wfb_wf in W. rewrite <- (find_cf_coef s 0 (proj1 W)).
  apply qis0_false. exact H.
Qed.
Lemma const1_coef s : wfb s = true -> const1 s = true -> coef s 0 == 1.
Proof.
  intros W H. apply wfb_wf in W. rewrite <- (find_cf_coef s 0 (proj1 W)).
  apply Qeq_bool_iff. exact H.
Qed.
Lemma prec_ok_lt prec : prec_ok prec = true -> (0 < prec < 2147483648)%N.
Proof.
  unfold prec_ok. intros H. apply andb_prop in H. destruct H as [H1 H2].
  apply N.ltb_lt in H1. apply N.ltb_lt in H2. lia.
Qed.

(* the guards of the function theorems, as the propositions their proofs use *)
Lemma guards0 s prec : wfb s = true -> const0 s = true -> prec_ok prec = true ->
  wf s /\ coef s 0 == 0 /\ (0 < prec < 2147483648)%N.
Proof. intros W H Hp. split; [apply wfb_wf; exact W|]. split; [apply const0_coef; assumption|apply prec_ok_lt; exact Hp]. Qed.

(* a theorem under the propositional guards holds under the boolean ones *)
Lemma guarded0 (P : poly -> N -> Prop) :
  (forall s prec, wf s -> coef s 0 == 0 -> (0 < prec < 2147483648)%N -> P s prec) ->
  forall s prec, wfb s = true -> const0 s = true -> prec_ok prec = true -> P s prec.
Proof. intros HP s prec W H Hp. destruct (guards0 s prec W H Hp) as (Ws & S0 & Hlt). exact (HP s prec Ws S0 Hlt). Qed.

