(* C31 -- series_sin / series_cos for arguments without constant term: the loops
   _series_sin / _series_cos accumulate the Maclaurin polynomials in s; the two results
   solve  sin(0) = 0, cos(0) = 1, sin' = s' cos, cos' = - s' sin  modulo x^(prec-1). *)
From Coq Require Import QArith Qring Qfield Setoid Morphisms Lia List ZArith NArith.
From SE Require Import C31.SeriesModel C31.PS C31.Sem C31.Invert C31.Exp.
Local Open Scope Q_scope.
Local Open Scope res_scope.
Local Arguments Z.add : simpl never.

(* coefficient of s^(2l+d) in sin (d = 1) and cos (d = 0) *)
Definition tc (d l : nat) : Q := sgn l / qfact (2 * l + d).

Lemma tc_0 d : (d <= 1)%nat -> tc d 0 == 1.
Proof. intros H. destruct d as [|[|d]]; [reflexivity|reflexivity|lia]. Qed.

Lemma tc_10 l : tc 1 l * qnat (S (2 * l)) == tc 0 l.
Proof.
  unfold tc. rewrite Nat.add_0_r. replace (2 * l + 1)%nat with (S (2 * l)) by lia. cbn [qfact].
  field. split; [apply qfact_neq0|apply qnat_S_neq0].
Qed.
Lemma tc_01 l : tc 0 (S l) * qnat (S (2 * l + 1)) == - tc 1 l.
Proof.
  unfold tc. rewrite sgn_S, Nat.add_0_r. replace (2 * S l)%nat with (S (2 * l + 1)) by lia. cbn [qfact].
  field. split; [apply qfact_neq0|apply qnat_S_neq0].
Qed.

(* the recurrence used by the loops: prod /= (1 - j); prod /= j  with j = 2 i + d *)
Lemma tc_step d i :
  tc d (S i) == tc d i / inject_Z (1 - (2 * Z.of_nat (S i) + Z.of_nat d))
                       / inject_Z (2 * Z.of_nat (S i) + Z.of_nat d).
Proof.
  unfold tc. rewrite sgn_S.
  replace (2 * S i + d)%nat with (S (S (2 * i + d))) by lia. cbn [qfact]. unfold qnat.
  replace (Z.of_nat (S (S (2 * i + d)))) with (2 * Z.of_nat (S i) + Z.of_nat d)%Z by lia.
  replace (Z.of_nat (S (2 * i + d))) with (2 * Z.of_nat (S i) + Z.of_nat d - 1)%Z by lia.
  replace (1 - (2 * Z.of_nat (S i) + Z.of_nat d))%Z with (- (2 * Z.of_nat (S i) + Z.of_nat d - 1))%Z by lia.
  rewrite inject_Z_opp.
  assert (A : ~ inject_Z (2 * Z.of_nat (S i) + Z.of_nat d) == 0) by (unfold inject_Z, Qeq; simpl; lia).
  assert (B : ~ inject_Z (2 * Z.of_nat (S i) + Z.of_nat d - 1) == 0) by (unfold inject_Z, Qeq; simpl; lia).
  field. repeat split; try assumption. apply qfact_neq0.
Qed.

Fixpoint tsum (d : nat) (T : ps) (n : nat) : ps :=
  match n with O => p0 | S i => (tsum d T i + pC (tc d i) * ppow_s T (2 * i + d))%ps end.

(* derivative of one term of a partial sum *)
Lemma pD_term c T k : pD (pC c * ppow_s T (S k))%ps =p (pD T * (pC (c * qnat (S k)) * ppow_s T k))%ps.
Proof. rewrite pD_pC_mul, pD_ppow, <- pC_mul, <- pC_mulC. ring. Qed.

Lemma D_tsum1 T n : pD (tsum 1 T n) =p (pD T * tsum 0 T n)%ps.
Proof.
  induction n; cbn [tsum].
  - rewrite pD_0. ring.
  - rewrite pD_add, IHn, Nat.add_0_r. replace (2 * n + 1)%nat with (S (2 * n)) by lia.
    rewrite pD_term, tc_10. ring.
Qed.

Lemma D_tsum0 T n : pD (tsum 0 T (S n)) =p (- (pD T * tsum 1 T n))%ps.
Proof.
  induction n.
  - cbn [tsum]. rewrite pD_add, pD_0, pD_pC_mul.
    change (ppow_s T (2 * 0 + 0)) with p1. assert (E0 : pD p1 =p p0) by apply pD_C. rewrite E0. ring.
  - change (tsum 0 T (S (S n)))
      with (tsum 0 T (S n) + pC (tc 0 (S n)) * ppow_s T (2 * S n + 0))%ps.
    rewrite pD_add, IHn, Nat.add_0_r. cbn [tsum].
    replace (2 * S n)%nat with (S (2 * n + 1)) by lia.
    rewrite pD_term, tc_01, <- pC_opp. ring.
Qed.

(* constant term: only T^0 contributes *)
Lemma tsum_coef0 d T n : vge 1 T ->
  tsum d T n O == match n, d with S _, O => 1 | _, _ => 0 end.
Proof.
  intros V; induction n; cbn [tsum]; [reflexivity|].
  unfold padd_s. rewrite IHn, pmul_coef0.
  destruct n as [|n], d as [|d]; try (rewrite (vge_ppow T _ V O) by lia; ring).
  change (ppow_s T (2 * 0 + 0)) with p1. change (pC (tc 0 0) O) with (tc 0 0). rewrite (tc_0 0) by lia.
  change (p1 O) with 1. ring.
Qed.

(* sin_loop and cos_loop are the same loop, with j = 2 i + d *)
Fixpoint trig_loop (d : Z) (cnt : nat) (i : Z) (prod : Q) (monom ssq res_p : poly) (prec : N) : poly :=
  match cnt with
  | O => res_p
  | S c =>
      let j := (2 * i + d)%Z in
      let prod := if (i =? 0)%Z then prod else qdiv prod (qZ (1 - j)) in
      let prod := qdiv prod (qZ j) in
      trig_loop d c (i + 1) prod (pmul monom ssq prec) ssq
                (padd res_p (pmul monom (pconst prod) prec)) prec
  end.

Lemma sin_loop_trig cnt : forall i prod monom ssq res_p prec,
  sin_loop cnt i prod monom ssq res_p prec = trig_loop 1 cnt i prod monom ssq res_p prec.
Proof. induction cnt; intros; cbn [sin_loop trig_loop]; [reflexivity|apply IHcnt]. Qed.
Lemma cos_loop_trig cnt : forall i prod monom ssq res_p prec,
  cos_loop cnt i prod monom ssq res_p prec = trig_loop 0 cnt i prod monom ssq res_p prec.
Proof. induction cnt; intros; cbn [cos_loop trig_loop]; [reflexivity|]. rewrite Z.add_0_r. apply IHcnt. Qed.

Lemma trig_loop_ok (d : nat) s prec (Hp : (prec < 2147483648)%N) cnt : forall (i : nat) prod monom ssq res_p,
  (d <= 1)%nat -> (i = 0 -> d = 1)%nat -> wf monom -> wf ssq -> wf res_p ->
  eqn (N.to_nat prec) (den ssq) ((den s) * (den s))%ps ->
  eqn (N.to_nat prec) (den monom) (ppow_s (den s) (2 * i + d)) ->
  prod == match i with O => 1 | S i' => tc d i' end ->
  eqn (N.to_nat prec) (den res_p) (tsum d (den s) i) ->
  let r := trig_loop (Z.of_nat d) cnt (Z.of_nat i) prod monom ssq res_p prec in
  wf r /\ eqn (N.to_nat prec) (den r) (tsum d (den s) (i + cnt)).
Proof.
  induction cnt; intros i prod monom ssq res_p Hd Hi Wm Wq Wr Hq Hm Hpr Hr; cbn [trig_loop].
  - split; [exact Wr|]. rewrite Nat.add_0_r. exact Hr.
  - set (prod' := qdiv (if (Z.of_nat i =? 0)%Z then prod
                        else qdiv prod (qZ (1 - (2 * Z.of_nat i + Z.of_nat d))))
                       (qZ (2 * Z.of_nat i + Z.of_nat d))).
    assert (Hpr' : prod' == tc d i).
    { unfold prod'. destruct i as [|i'].
      - rewrite (Hi eq_refl). change (Z.of_nat 0 =? 0)%Z with true. cbv match. rewrite qdiv_ok, Hpr, (tc_0 1) by lia.
        change (qZ (2 * Z.of_nat 0 + Z.of_nat 1)) with 1. field.
      - destruct (Z.eqb_spec (Z.of_nat (S i')) 0); [lia|].
        rewrite !qdiv_ok, Hpr, tc_step. unfold qZ. reflexivity. }
    replace (Z.of_nat i + 1)%Z with (Z.of_nat (S i)) by lia.
    destruct (IHcnt (S i) prod' (pmul monom ssq prec) ssq
                (padd res_p (pmul monom (pconst prod') prec))) as [W E].
    + exact Hd.
    + discriminate.
    + auto with wf.
    + exact Wq.
    + auto with wf.
    + exact Hq.
    + rewrite (eqn_pmul monom ssq prec Wm Wq Hp).
      rewrite Hm, Hq. apply peq_eqn.
      replace (2 * S i + d)%nat with (S (S (2 * i + d))) by lia.
      cbn [ppow_s]. ring.
    + exact Hpr'.
    + rewrite den_padd. cbn [tsum].
      rewrite (eqn_pmul monom (pconst prod') prec Wm (wf_pconst _) Hp).
      rewrite Hr, Hm, den_pconst, Hpr'. apply peq_eqn. ring.
    + split; [exact W|]. replace (i + S cnt)%nat with (S i + cnt)%nat by lia. exact E.
Qed.

Theorem sin_cos_spec s prec :
  wf s -> coef s 0 == 0 -> (0 < prec < 2147483648)%N ->
  exists rs rc, series_sin s prec = Ok rs /\ series_cos s prec = Ok rc /\
    wf rs /\ wf rc /\ den rs O == 0 /\ den rc O == 1 /\
    eqn (N.to_nat prec - 1) (pD (den rs)) (pD (den s) * den rc)%ps /\
    eqn (N.to_nat prec - 1) (pD (den rc)) (- (pD (den s) * den rs))%ps.
Proof.
  intros Ws S0 Hp. unfold series_sin, series_cos.
  rewrite (find_cf_0 s Ws S0). cbv match.
  set (T := den s). set (P := N.to_nat prec). set (N := N.to_nat (prec / 2)).
  assert (V : vge 1 T).
  { intros k Hk. assert (k = O) by lia; subst k. unfold T. change (den s O) with (coef s 0). exact S0. }
  assert (Wq : wf (pmul s s prec)) by auto with wf.
  assert (Hq : eqn P (den (pmul s s prec)) (T * T)%ps).
  { apply eqn_pmul; [exact Ws|exact Ws|lia]. }
  destruct (trig_loop_ok 1 s prec (proj2 Hp) N 0 1 s (pmul s s prec) []) as [Wrs Ers];
    [lia|reflexivity|exact Ws|exact Wq|apply wf_nil|exact Hq
    |apply peq_eqn; change (2 * 0 + 1)%nat with 1%nat; cbn [ppow_s]; fold T; ring
    |reflexivity|rewrite den_nil; reflexivity|].
  destruct (trig_loop_ok 0 s prec (proj2 Hp) N 1 1 (pmul s s prec) (pmul s s prec) (pint 1)) as [Wrc Erc];
    [lia|discriminate|exact Wq|exact Wq|apply wf_pconst|exact Hq
    |rewrite Hq; apply peq_eqn; change (2 * 1 + 0)%nat with 2%nat; cbn [ppow_s]; unfold T; ring
    |rewrite (tc_0 0) by lia; reflexivity
    |rewrite den_pint_1; apply peq_eqn; cbn [tsum]; change (ppow_s (den s) (2 * 0 + 0)) with p1;
     rewrite (tc_0 0) by lia; fold p1; ring|].
  change (Z.of_nat 1) with 1%Z in Wrs, Ers. change (Z.of_nat 0) with 0%Z in Wrc, Erc. change (Z.of_nat 1) with 1%Z in Wrc, Erc.
  rewrite <- sin_loop_trig in Wrs, Ers. rewrite <- cos_loop_trig in Wrc, Erc.
  fold T P in Ers, Erc. cbn [Nat.add] in Ers.
  exists (series_sin0 s prec), (series_cos0 s prec).
  split; [reflexivity|]. split; [reflexivity|].
  unfold series_sin0, series_cos0. fold N.
  split; [exact Wrs|]. split; [exact Wrc|].
  assert (HP : (1 <= P)%nat) by (unfold P; lia).
  split; [rewrite (Ers O) by lia; rewrite (tsum_coef0 1 T N V); destruct N; reflexivity|].
  split; [rewrite (Erc O) by lia; replace (1 + N)%nat with (S N) by lia; apply (tsum_coef0 0 T (S N) V)|].
  replace (1 + N)%nat with (S N) in Erc by lia.
  assert (H2N : (P - 1 <= 2 * N)%nat).
  { unfold P, N. assert (A := N.div_mod prec 2 ltac:(lia)).
    assert (B := N.mod_lt prec 2 ltac:(lia)). lia. }
  split.
  - rewrite (eqn_pD (P - 1) _ (tsum 1 T N)) by (replace (S (P - 1)) with P by lia; exact Ers).
    rewrite D_tsum1, (eqn_le P (P - 1) _ _ ltac:(lia) Erc). cbn [tsum].
    apply eqn_of_vge_sub.
    apply (vge_peq _ (ppow_s T (2 * N + 0) * (- (pD T * pC (tc 0 N))))%ps); [ring|].
    apply (vge_le (2 * N + 0)); [lia|].
    apply vge_mul_l. apply vge_ppow. exact V.
  - rewrite (eqn_pD (P - 1) _ (tsum 0 T (S N))) by (replace (S (P - 1)) with P by lia; exact Erc).
    rewrite D_tsum0, (eqn_le P (P - 1) _ _ ltac:(lia) Ers). reflexivity.
Qed.
