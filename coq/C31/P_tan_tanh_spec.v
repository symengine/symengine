(* C31 obligation: series_tan and series_tanh (Newton iterations r <- r + (s - atan r)(1 + r^2),
   r <- r + (s - atanh r)(1 - r^2) along step_list) solve  y(0) = 0,  y' = s' (1 +- y^2)
   modulo x^(prec-1); by uniqueness their coefficients below x^prec are those of tan(s), tanh(s). *)
From Coq Require Import QArith List ZArith NArith.
From SE Require Import C31.VisitorModel.
From SE Require Import C31.SeriesSpec C31.Invert C31.Tan C31.Compose.
Local Open Scope Q_scope.
Theorem C31_tan_spec :
  forall (s : poly) (prec : N),
    wfb s = true -> const0 s = true -> prec_ok prec = true ->
    exists r, series_tan s prec = Ok r /\ wf r /\ den r O == 0 /\
              eqn (N.to_nat prec - 1) (pD (den r)) (pD (den s) * (p1 + den r * den r))%ps.
Proof. exact (guarded0 _ tan_spec). Qed.
Theorem C31_tanh_spec :
  forall (s : poly) (prec : N),
    wfb s = true -> const0 s = true -> prec_ok prec = true ->
    exists r, series_tanh s prec = Ok r /\ wf r /\ den r O == 0 /\
              eqn (N.to_nat prec - 1) (pD (den r)) (pD (den s) * (p1 - den r * den r))%ps.
Proof. exact (guarded0 _ tanh_spec). Qed.
Theorem C31_tan_taylor :
  forall (s : poly) (prec : N) (r : poly) (y : ps),
    wfb s = true -> const0 s = true -> prec_ok prec = true ->
    series_tan s prec = Ok r ->
    y O == 0 -> pD y =p (pD (den s) * (p1 + y * y))%ps ->
    eqn (N.to_nat prec) (den r) y.
Proof.
  intros s prec r y W H Hp Er Y0 Yd. destruct (guards0 s prec W H Hp) as (Ws & S0 & Hlt).
  exact (proj2 (tan_compose s prec r (den s) y Ws S0 Hlt Er (eqn_refl _ _) Y0 Yd)).
Qed.
Theorem C31_tanh_taylor :
  forall (s : poly) (prec : N) (r : poly) (y : ps),
    wfb s = true -> const0 s = true -> prec_ok prec = true ->
    series_tanh s prec = Ok r ->
    y O == 0 -> pD y =p (pD (den s) * (p1 - y * y))%ps ->
    eqn (N.to_nat prec) (den r) y.
Proof.
  intros s prec r y W H Hp Er Y0 Yd. destruct (guards0 s prec W H Hp) as (Ws & S0 & Hlt).
  exact (proj2 (tanh_compose s prec r (den s) y Ws S0 Hlt Er (eqn_refl _ _) Y0 Yd)).
Qed.
Print Assumptions C31_tan_spec.
Print Assumptions C31_tanh_spec.
Print Assumptions C31_tan_taylor.
Print Assumptions C31_tanh_taylor.
