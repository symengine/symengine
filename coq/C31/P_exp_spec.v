(* C31 obligation: series_exp (s == 0, the fast path s == x, and the Newton iteration
   r <- r (1 + s - log r) along step_list) solves  y(0) = 1,  y' = s' y  modulo x^(prec-1);
   by uniqueness its coefficients below x^prec are those of exp(s). *)
From Coq Require Import QArith List ZArith NArith.
From SE Require Import C31.VisitorModel.
From SE Require Import C31.SeriesSpec C31.Invert C31.Exp C31.Compose.
Local Open Scope Q_scope.
Theorem C31_exp_spec :
  forall (s : poly) (prec : N),
    wfb s = true -> const0 s = true -> prec_ok prec = true ->
    exists r, series_exp s prec = Ok r /\ wf r /\ den r O == 1 /\
              eqn (N.to_nat prec - 1) (pD (den r)) (pD (den s) * den r)%ps.
Proof. exact (guarded0 _ exp_spec). Qed.
Theorem C31_exp_taylor :
  forall (s : poly) (prec : N) (r : poly) (y : ps),
    wfb s = true -> const0 s = true -> prec_ok prec = true ->
    series_exp s prec = Ok r ->
    y O == 1 -> pD y =p (pD (den s) * y)%ps ->
    eqn (N.to_nat prec) (den r) y.
Proof.
  intros s prec r y W H Hp Er Y0 Yd. destruct (guards0 s prec W H Hp) as (Ws & S0 & Hlt).
  exact (proj2 (exp_compose s prec r (den s) y Ws S0 Hlt Er (eqn_refl _ _) Y0 Yd)).
Qed.
Print Assumptions C31_exp_spec.
Print Assumptions C31_exp_taylor.
