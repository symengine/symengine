(* C31 -- series_exp: Newton iteration r <- r (1 + s - log r) along the precision chain, and
   the "fast" path for exp(x). *)
From Coq Require Import QArith Qring Qfield Setoid Morphisms Lia List ZArith NArith.
From SE Require Import C31.SeriesModel C31.PS C31.Newton C31.Sem C31.Invert C31.LogAtan.
Local Open Scope Q_scope.
Local Open Scope res_scope.

(* the invariant of the loops of series_exp, series_tan, series_tanh at precision m *)
Definition ode_inv (phi : ps -> ps) (y0 : Q) (s : poly) (m : N) (r : poly) : Prop :=
  wf r /\ den r O == y0 /\ eqn (N.to_nat m - 1) (pD (den r)) (pD (den s) * phi (den r))%ps.

(* a: the inverse function (log, atan, atanh) of the iterate r at precision st; r': the next iterate *)
Lemma ode_inv_step phi phi' y0 s m st r a r' :
  second_order phi phi' ->
  ode_inv phi y0 s m r -> (st <= 2 * m)%N -> step_ok st ->
  coef s 0 == 0 -> den a O == 0 -> ~ phi (den r) O == 0 ->
  eqn (N.to_nat st - 1) (pD (den a) * phi (den r))%ps (pD (den r)) ->
  wf r' -> eqn (N.to_nat st) (den r') (den r + (den s - den a) * phi (den r))%ps ->
  ode_inv phi y0 s st r'.
Proof.
  intros H2 (Wr & R0 & HR) Hst Hok S0 A0 Hu HA Wr' Hr'. unfold step_ok in Hok.
  destruct (newton_ode_step phi phi' (N.to_nat m) (N.to_nat st) (den s) (den r) (den a) (den r') H2)
    as [E0 E1]; try assumption; [lia|change (den s O) with (coef s 0); rewrite S0, A0; reflexivity|].
  split; [exact Wr'|]. split; [rewrite E0; exact R0|exact E1].
Qed.

Lemma exp_step_ok s : wf s -> coef s 0 == 0 -> forall m st r,
  ode_inv (fun y => y) 1 s m r -> (st <= 2 * m)%N -> step_ok st ->
  exists r', (do l <- series_log r st; Ok (pmul r (psub (padd s (pint 1)) l) st)) = Ok r' /\
             ode_inv (fun y => y) 1 s st r'.
Proof.
  intros Ws S0 m st r Hinv Hst Hok. assert (Hok' := Hok). destruct Hok'. destruct Hinv as (Wr & R0 & HR).
  destruct (log_spec r st Wr R0 ltac:(lia)) as (l & El & Wl & L0 & HL).
  rewrite El. cbn [bind].
  eexists. split; [reflexivity|].
  apply (ode_inv_step _ _ 1 s m st r l _ second_order_id (conj Wr (conj R0 HR)) Hst Hok S0 L0).
  - rewrite R0. discriminate.
  - exact HL.
  - auto with wf.
  - rewrite eqn_pmul by (auto with wf; lia).
    apply peq_eqn. rewrite den_psub, den_padd, den_pint_1. ring.
Qed.

Fixpoint qfact (n : nat) : Q :=
  match n with O => 1 | S m => qnat (S m) * qfact m end.
Lemma qfact_neq0 n : ~ qfact n == 0.
Proof.
  induction n; simpl; [discriminate|].
  intro H. apply Qmult_integral in H. destruct H as [H|H]; [|contradiction].
  revert H. apply qnat_neq0. lia.
Qed.

(* with the terms up to x^j the sum r satisfies  r' = r - x^j / j! *)
Lemma exp_fast_ok cnt : forall (j : nat) cf monom res_p,
  wf monom -> wf res_p -> cf == / qfact j -> den monom =p xpow (S j) -> den res_p O == 1 ->
  pD (den res_p) =p (den res_p - pC (/ qfact j) * xpow j)%ps ->
  let r := exp_fast cnt (Z.of_nat (S j)) cf monom res_p in
  wf r /\ den r O == 1 /\ pD (den r) =p (den r - pC (/ qfact (j + cnt)) * xpow (j + cnt))%ps.
Proof.
  induction cnt; intros j cf monom res_p Wm Wr Hc Dm R0 HR; cbn [exp_fast].
  - rewrite Nat.add_0_r. split; [exact Wr|]. split; assumption.
  - replace (Z.of_nat (S j) + 1)%Z with (Z.of_nat (S (S j))) by lia.
    set (cf' := qdiv cf (qZ (Z.of_nat (S j)))).
    assert (Hc' : cf' == / qfact (S j)).
    { unfold cf'. rewrite qdiv_ok, Hc. cbn [qfact]. change (qZ (Z.of_nat (S j))) with (qnat (S j)).
      field. split; [apply qfact_neq0|apply qnat_S_neq0]. }
    assert (Hd : cf' * qnat (S j) == / qfact j).
    { rewrite Hc'. cbn [qfact]. field. split; [apply qfact_neq0|apply qnat_S_neq0]. }
    assert (Dt : den (pmul_q monom cf') =p (pC cf' * xpow (S j))%ps).
    { rewrite (den_pmul_q _ _ Wm), Dm, pC_mul. reflexivity. }
    destruct (IHcnt (S j) cf' (pmul_assign monom pvar) (padd res_p (pmul_q monom cf'))) as (W & R0' & HR').
    + rewrite pmul_assign_pvar. auto with wf.
    + auto with wf.
    + exact Hc'.
    + rewrite pmul_assign_pvar. rewrite den_pmul_full by auto with wf.
      rewrite Dm, den_pvar. apply xpow_mul_X.
    + rewrite (den_padd _ _ O). unfold padd_s. rewrite R0, (Dt O), pmul_coef0.
      change (xpow (S j) O) with 0. ring.
    + rewrite den_padd, pD_add, Dt, pD_xpow, HR, Hd, <- Hc'. ring.
    + split; [exact W|]. replace (j + S cnt)%nat with (S j + cnt)%nat by lia. split; assumption.
Qed.

Theorem exp_spec s prec :
  wf s -> coef s 0 == 0 -> (0 < prec < 2147483648)%N ->
  exists r, series_exp s prec = Ok r /\ wf r /\ den r O == 1 /\
            eqn (N.to_nat prec - 1) (pD (den r)) (pD (den s) * den r)%ps.
Proof.
  intros Ws S0 Hp. unfold series_exp.
  destruct (peqb s []) eqn:E0.
  - exists (pint 1). split; [reflexivity|]. split; [apply wf_pconst|].
    split; [rewrite (den_pint_1 O); reflexivity|].
    apply peq_eqn. rewrite (peqb_den _ _ E0), den_nil, den_pint_1.
    rewrite (pD_C 1), pD_0. ring.
  - destruct (peqb s pvar) eqn:E1.
    + destruct (exp_fast_ok (N.to_nat (prec - 1)) 0 1 pvar (pint 1)) as (W & R0 & HR).
      * apply wf_pvar.
      * apply wf_pconst.
      * reflexivity.
      * rewrite den_pvar. intros [|[|n]]; reflexivity.
      * rewrite (den_pint_1 O). reflexivity.
      * assert (X0 : (pC (/ qfact 0) * xpow 0)%ps =p p1) by (rewrite pC_mul; intros [|n]; reflexivity).
        rewrite X0, den_pint_1, (pD_C 1). ring.
      * change (Z.of_nat 1) with 1%Z in W, R0, HR.
        eexists. split; [reflexivity|]. split; [exact W|]. split; [exact R0|].
        rewrite (peqb_den _ _ E1), den_pvar, pD_pX, pmul_1_l, HR.
        (* the remainder x^(prec - 1) / (prec - 1)! lies beyond x^(prec - 2) *)
        intros k Hk. unfold psub_s. rewrite (pC_mul _ _ k). unfold pscale, xpow.
        destruct (Nat.eqb_spec k (0 + N.to_nat (prec - 1))); [lia|ring].
    + rewrite (find_cf_0 s Ws S0). cbv match.
      destruct (newton_loop step_ok (ode_inv (fun y => y) 1 s) _ (pint 1) prec (step_list_ok prec Hp)
                  (exp_step_ok s Ws S0)) as (r & E & I).
      * split; [apply wf_pconst|]. split; [rewrite (den_pint_1 O); reflexivity|apply eqn_0].
      * rewrite E. exists r. split; [reflexivity|exact I].
Qed.
