(* C31 -- formal power series over Q as coefficient functions nat -> Q: the commutative ring
   (Cauchy product), congruence modulo x^n, valuations, derivative, integral, Leibniz rule,
   cancellation by units, uniqueness of solutions of first-order initial value problems (one theorem for
   implicit systems, of which the scalar, linear, paired and Lambert W statements are instances), transfer of a
   solution to a congruent argument, powers and roots, monomials.
   Axiom-free (setoid equality, no functional extensionality). *)
From Coq Require Import QArith Qring Qfield Setoid Morphisms Lia Arith List.
Local Open Scope Q_scope.

Definition ps := nat -> Q.
Definition peq (a b : ps) : Prop := forall n, a n == b n.
Infix "=p" := peq (at level 70, no associativity).

Global Instance peq_equiv : Equivalence peq.
Proof.
  split.
  - intros a n; reflexivity.
  - intros a b H n; symmetry; apply H.
  - intros a b c H1 H2 n; rewrite (H1 n); apply H2.
Qed.

Fixpoint sumn (f : nat -> Q) (n : nat) : Q :=
  match n with O => 0 | S m => sumn f m + f m end.

Lemma sumn_S f n : sumn f (S n) = sumn f n + f n.
Proof. reflexivity. Qed.
Lemma sumn_1 f : sumn f 1 == f O.
Proof. simpl; ring. Qed.

Lemma sumn_ext f g n : (forall i, (i < n)%nat -> f i == g i) -> sumn f n == sumn g n.
Proof.
  induction n; intros H; simpl; [reflexivity|].
  rewrite IHn by (intros; apply H; lia). rewrite (H n) by lia. reflexivity.
Qed.

Lemma sumn_add f g n : sumn (fun i => f i + g i) n == sumn f n + sumn g n.
Proof. induction n; simpl; [ring|]. rewrite IHn; ring. Qed.

Lemma sumn_scale c f n : sumn (fun i => c * f i) n == c * sumn f n.
Proof. induction n; simpl; [ring|]. rewrite IHn; ring. Qed.

Lemma sumn_scale_r c f n : sumn (fun i => f i * c) n == sumn f n * c.
Proof. induction n; simpl; [ring|]. rewrite IHn; ring. Qed.

Lemma sumn_0 f n : (forall i, (i < n)%nat -> f i == 0) -> sumn f n == 0.
Proof.
  induction n; intros H; simpl; [reflexivity|].
  rewrite IHn by (intros; apply H; lia). rewrite (H n) by lia. ring.
Qed.

Lemma sumn_shift f n : sumn f (S n) == f O + sumn (fun i => f (S i)) n.
Proof. induction n; simpl; [ring|]. simpl in IHn. rewrite IHn. ring. Qed.

Lemma sumn_rev f n : sumn f n == sumn (fun i => f (n - 1 - i)%nat) n.
Proof.
  induction n; [reflexivity|].
  rewrite (sumn_shift (fun i => f (S n - 1 - i)%nat) n).
  replace (S n - 1 - 0)%nat with n by lia.
  rewrite (sumn_ext (fun i => f (S n - 1 - S i)%nat) (fun i => f (n - 1 - i)%nat) n).
  - rewrite <- IHn. simpl. ring.
  - intros i Hi. replace (S n - 1 - S i)%nat with (n - 1 - i)%nat by lia. reflexivity.
Qed.

Lemma sumn_single f n k : (k < n)%nat -> (forall i, (i < n)%nat -> i <> k -> f i == 0) ->
  sumn f n == f k.
Proof.
  induction n; intros Hk H; [lia|]. simpl.
  destruct (Nat.eq_dec k n) as [->|Hne].
  - rewrite sumn_0; [ring|]. intros i Hi; apply H; lia.
  - rewrite IHn; [|lia|intros; apply H; lia]. rewrite (H n); [ring|lia|lia].
Qed.

Lemma sumn_split f n m : sumn f (n + m) == sumn f n + sumn (fun i => f (n + i)%nat) m.
Proof.
  induction m; simpl.
  - rewrite Nat.add_0_r; ring.
  - rewrite Nat.add_succ_r; simpl. rewrite IHm; ring.
Qed.

(* sum_{i<=n} sum_{j<=i} F i j = sum_{j<=n} sum_{l<=n-j} F (j+l) j *)
Lemma sumn_triangle (F : nat -> nat -> Q) n :
  sumn (fun i => sumn (fun j => F i j) (S i)) (S n)
  == sumn (fun j => sumn (fun l => F (j + l)%nat j) (S (n - j))) (S n).
Proof.
  induction n.
  - simpl. ring.
  - rewrite (sumn_S (fun i => sumn (fun j => F i j) (S i)) (S n)).
    rewrite IHn.
    rewrite (sumn_S (fun j => sumn (fun l => F (j + l)%nat j) (S (S n - j))) (S n)).
    replace (S n - S n)%nat with O by lia.
    assert (E : sumn (fun j => sumn (fun l => F (j + l)%nat j) (S (S n - j))) (S n)
                == sumn (fun j => sumn (fun l => F (j + l)%nat j) (S (n - j)) + F (S n) j) (S n)).
    { apply sumn_ext; intros j Hj.
      replace (S n - j)%nat with (S (n - j)) by lia.
      rewrite (sumn_S (fun l => F (j + l)%nat j) (S (n - j))).
      replace (j + S (n - j))%nat with (S n) by lia. reflexivity. }
    rewrite E, sumn_add.
    rewrite (sumn_S (fun j => F (S n) j) (S n)).
    rewrite sumn_1. replace (S n + 0)%nat with (S n) by lia.
    rewrite Qplus_assoc. reflexivity.
Qed.

Definition p0 : ps := fun _ => 0.
Definition pC (c : Q) : ps := fun n => match n with O => c | _ => 0 end.
Definition p1 : ps := pC 1.
Definition pX : ps := fun n => match n with 1%nat => 1 | _ => 0 end.
Definition padd_s (a b : ps) : ps := fun n => a n + b n.
Definition popp (a : ps) : ps := fun n => - a n.
Definition psub_s (a b : ps) : ps := fun n => a n - b n.
Definition pmul_s (a b : ps) : ps := fun n => sumn (fun i => a i * b (n - i)%nat) (S n).
Definition pscale (c : Q) (a : ps) : ps := fun n => c * a n.

Declare Scope ps_scope.
Delimit Scope ps_scope with ps.
Infix "+" := padd_s : ps_scope.
Infix "*" := pmul_s : ps_scope.
Infix "-" := psub_s : ps_scope.
Notation "- a" := (popp a) : ps_scope.

Global Instance padd_proper : Proper (peq ==> peq ==> peq) padd_s.
Proof. intros a a' Ha b b' Hb n; unfold padd_s; rewrite (Ha n), (Hb n); reflexivity. Qed.
Global Instance popp_proper : Proper (peq ==> peq) popp.
Proof. intros a a' Ha n; unfold popp; rewrite (Ha n); reflexivity. Qed.
Global Instance psub_proper : Proper (peq ==> peq ==> peq) psub_s.
Proof. intros a a' Ha b b' Hb n; unfold psub_s; rewrite (Ha n), (Hb n); reflexivity. Qed.
Global Instance pmul_proper : Proper (peq ==> peq ==> peq) pmul_s.
Proof.
  intros a a' Ha b b' Hb n; unfold pmul_s. apply sumn_ext; intros i _.
  rewrite (Ha i), (Hb (n - i)%nat); reflexivity.
Qed.
Global Instance pscale_proper : Proper (Qeq ==> peq ==> peq) pscale.
Proof. intros c c' Hc a a' Ha n; unfold pscale; rewrite Hc, (Ha n); reflexivity. Qed.
Global Instance pC_proper : Proper (Qeq ==> peq) pC.
Proof. intros c c' Hc [|n]; simpl; [assumption|reflexivity]. Qed.

Lemma pmul_comm a b : (a * b)%ps =p (b * a)%ps.
Proof.
  intros n; unfold pmul_s. rewrite sumn_rev. apply sumn_ext; intros i Hi.
  replace (S n - 1 - i)%nat with (n - i)%nat by lia.
  replace (n - (n - i))%nat with i by lia. ring.
Qed.

Lemma pmul_assoc a b c : (a * (b * c))%ps =p ((a * b) * c)%ps.
Proof.
  intros n; unfold pmul_s. symmetry.
  transitivity (sumn (fun i => sumn (fun j => a j * b (i - j)%nat * c (n - i)%nat) (S i)) (S n)).
  { apply sumn_ext; intros i _. rewrite <- sumn_scale_r. reflexivity. }
  rewrite sumn_triangle. apply sumn_ext; intros j Hj.
  rewrite <- sumn_scale. apply sumn_ext; intros l Hl.
  replace (j + l - j)%nat with l by lia. replace (n - (j + l))%nat with (n - j - l)%nat by lia. ring.
Qed.

Lemma pC_mul c a : (pC c * a)%ps =p pscale c a.
Proof.
  intros n; unfold pmul_s, pscale. rewrite (sumn_single _ _ O); [|lia|].
  - simpl. rewrite Nat.sub_0_r. reflexivity.
  - intros i _ Hi. destruct i; [lia|]. simpl. ring.
Qed.
Lemma pmul_1_l a : (p1 * a)%ps =p a.
Proof. unfold p1. rewrite pC_mul. intros n; unfold pscale; ring. Qed.

Lemma pmul_distr_l a b c : ((a + b) * c)%ps =p (a * c + b * c)%ps.
Proof.
  intros n; unfold pmul_s, padd_s. rewrite <- sumn_add. apply sumn_ext; intros; ring.
Qed.

Lemma ps_ring_theory : ring_theory p0 p1 padd_s pmul_s psub_s popp peq.
Proof.
  constructor.
  - intros a n; unfold padd_s, p0; ring.
  - intros a b n; unfold padd_s; ring.
  - intros a b c n; unfold padd_s; ring.
  - apply pmul_1_l.
  - apply pmul_comm.
  - apply pmul_assoc.
  - apply pmul_distr_l.
  - intros a b n; unfold psub_s, padd_s, popp; ring.
  - intros a n; unfold padd_s, popp, p0; ring.
Qed.

Lemma ps_ring_ext : ring_eq_ext padd_s pmul_s popp peq.
Proof. constructor; [apply padd_proper|apply pmul_proper|apply popp_proper]. Qed.

Add Ring ps_ring : ps_ring_theory (setoid peq_equiv ps_ring_ext).

Lemma pC_add c d : (pC c + pC d)%ps =p pC (c + d).
Proof. intros [|n]; unfold padd_s; simpl; ring. Qed.
Lemma pC_mulC c d : (pC c * pC d)%ps =p pC (c * d).
Proof. rewrite pC_mul. intros [|n]; unfold pscale; simpl; ring. Qed.
Lemma pC_0 : pC 0 =p p0.
Proof. intros [|n]; reflexivity. Qed.
Lemma pC_opp c : (- pC c)%ps =p pC (- c).
Proof. intros [|n]; unfold popp; simpl; ring. Qed.

(* congruence modulo x^n, and series of valuation at least m *)
Definition eqn (n : nat) (a b : ps) : Prop := forall k, (k < n)%nat -> a k == b k.
Definition vge (m : nat) (a : ps) : Prop := forall k, (k < m)%nat -> a k == 0.
Definition trunc (n : nat) (a : ps) : ps := fun k => if (k <? n)%nat then a k else 0.

Lemma eqn_refl n a : eqn n a a.
Proof. intros k _; reflexivity. Qed.
Lemma eqn_sym n a b : eqn n a b -> eqn n b a.
Proof. intros H k Hk; symmetry; apply H; assumption. Qed.
Lemma eqn_trans n a b c : eqn n a b -> eqn n b c -> eqn n a c.
Proof. intros H1 H2 k Hk; rewrite (H1 k Hk); apply H2; assumption. Qed.
Lemma eqn_le n m a b : (m <= n)%nat -> eqn n a b -> eqn m a b.
Proof. intros Hle H k Hk; apply H; lia. Qed.
Lemma peq_eqn n a b : a =p b -> eqn n a b.
Proof. intros H k _; apply H. Qed.
Lemma eqn_trunc n a : eqn n (trunc n a) a.
Proof. intros k Hk; unfold trunc. apply Nat.ltb_lt in Hk; rewrite Hk; reflexivity. Qed.
Lemma eqn_0 a b : eqn 0 a b.
Proof. intros k Hk; lia. Qed.

Global Instance eqn_equiv n : Equivalence (eqn n).
Proof. split; [intro; apply eqn_refl|intros a b; apply eqn_sym|intros a b c; apply eqn_trans]. Qed.
Global Instance eqn_peq_proper n : Proper (peq ==> peq ==> iff) (eqn n).
Proof.
  intros a a' Ha b b' Hb; split; intros H k Hk.
  - rewrite <- (Ha k), <- (Hb k); apply H; assumption.
  - rewrite (Ha k), (Hb k); apply H; assumption.
Qed.

Lemma eqn_add n a a' b b' : eqn n a a' -> eqn n b b' -> eqn n (a + b)%ps (a' + b')%ps.
Proof. intros Ha Hb k Hk; unfold padd_s; rewrite (Ha k Hk), (Hb k Hk); reflexivity. Qed.
Lemma eqn_sub n a a' b b' : eqn n a a' -> eqn n b b' -> eqn n (a - b)%ps (a' - b')%ps.
Proof. intros Ha Hb k Hk; unfold psub_s; rewrite (Ha k Hk), (Hb k Hk); reflexivity. Qed.
Lemma eqn_opp n a a' : eqn n a a' -> eqn n (- a)%ps (- a')%ps.
Proof. intros Ha k Hk; unfold popp; rewrite (Ha k Hk); reflexivity. Qed.
Lemma eqn_mul n a a' b b' : eqn n a a' -> eqn n b b' -> eqn n (a * b)%ps (a' * b')%ps.
Proof.
  intros Ha Hb k Hk; unfold pmul_s. apply sumn_ext; intros i Hi.
  rewrite (Ha i), (Hb (k - i)%nat) by lia. reflexivity.
Qed.
Lemma eqn_scale n c a a' : eqn n a a' -> eqn n (pscale c a) (pscale c a').
Proof. intros Ha k Hk; unfold pscale; rewrite (Ha k Hk); reflexivity. Qed.

Global Instance padd_eqn_proper n : Proper (eqn n ==> eqn n ==> eqn n) padd_s.
Proof. intros a a' Ha b b' Hb; apply eqn_add; assumption. Qed.
Global Instance psub_eqn_proper n : Proper (eqn n ==> eqn n ==> eqn n) psub_s.
Proof. intros a a' Ha b b' Hb; apply eqn_sub; assumption. Qed.
Global Instance pmul_eqn_proper n : Proper (eqn n ==> eqn n ==> eqn n) pmul_s.
Proof. intros a a' Ha b b' Hb; apply eqn_mul; assumption. Qed.
Global Instance popp_eqn_proper n : Proper (eqn n ==> eqn n) popp.
Proof. intros a a' Ha; apply eqn_opp; assumption. Qed.

Lemma vge_eqn m a : vge m a -> eqn m a p0.
Proof. intros H k Hk; apply H; assumption. Qed.
Lemma eqn_vge m a : eqn m a p0 -> vge m a.
Proof. intros H k Hk; apply H; assumption. Qed.
Lemma vge_sub m a b : eqn m a b -> vge m (a - b)%ps.
Proof. intros H k Hk; unfold psub_s. rewrite (H k Hk); ring. Qed.
Lemma eqn_of_vge_sub m a b : vge m (a - b)%ps -> eqn m a b.
Proof.
  intros H k Hk. specialize (H k Hk). unfold psub_s in H. rewrite <- (Qplus_0_r (b k)), <- H. ring.
Qed.
Lemma vge_le m m' a : (m' <= m)%nat -> vge m a -> vge m' a.
Proof. intros Hle H k Hk; apply H; lia. Qed.
Lemma vge_add m a b : vge m a -> vge m b -> vge m (a + b)%ps.
Proof. intros Ha Hb k Hk; unfold padd_s; rewrite (Ha k Hk), (Hb k Hk); ring. Qed.
Lemma vge_mul m m' a b : vge m a -> vge m' b -> vge (m + m') (a * b)%ps.
Proof.
  intros Ha Hb k Hk; unfold pmul_s. apply sumn_0; intros i Hi.
  destruct (Nat.lt_ge_cases i m) as [H|H].
  - rewrite (Ha i H); ring.
  - rewrite (Hb (k - i)%nat) by lia. ring.
Qed.
Lemma vge_mul_l m a b : vge m a -> vge m (a * b)%ps.
Proof.
  intros Ha. replace m with (m + 0)%nat by lia. apply vge_mul; [assumption|]. intros k Hk; lia.
Qed.
Lemma vge_peq m a b : a =p b -> vge m a -> vge m b.
Proof. intros H Ha k Hk; rewrite <- (H k); apply Ha; assumption. Qed.

Lemma pmul_coef0 a b : (a * b)%ps O == a O * b O.
Proof. unfold pmul_s; simpl; ring. Qed.
Lemma inverse_coef0 n (a b : ps) : (1 <= n)%nat -> eqn n (a * b)%ps p1 -> b O == 1 -> a O == 1.
Proof. intros Hn H B. transitivity ((a * b)%ps O); [rewrite pmul_coef0, B; ring|apply H; lia]. Qed.

Lemma inverse_unique n r r' s s' :
  eqn n s s' -> eqn n (r * s)%ps p1 -> eqn n (r' * s')%ps p1 -> eqn n r r'.
Proof.
  intros Hs H1 H2.
  assert (E1 : eqn n r (r * (r' * s'))%ps).
  { rewrite H2. apply peq_eqn. ring. }
  rewrite E1. rewrite <- Hs.
  assert (E2 : (r * (r' * s))%ps =p ((r * s) * r')%ps) by ring.
  rewrite E2, H1. apply peq_eqn; ring.
Qed.

(* by induction on n: coefficient n of y * a is y_n a_0 plus terms in y_i, i < n, which agree already *)
Lemma cancel_unit n y z a : ~ a O == 0 -> eqn n (y * a)%ps (z * a)%ps -> eqn n y z.
Proof.
  intros Ha H. induction n; [apply eqn_0|].
  assert (IH : eqn n y z) by (apply IHn; eapply eqn_le; [|exact H]; lia).
  intros k Hk. destruct (Nat.eq_dec k n) as [->|]; [|apply IH; lia].
  specialize (H n (Nat.lt_succ_diag_r n)). unfold pmul_s in H. simpl sumn in H.
  rewrite Nat.sub_diag in H.
  assert (E : sumn (fun i => y i * a (n - i)%nat) n == sumn (fun i => z i * a (n - i)%nat) n).
  { apply sumn_ext; intros i Hi. rewrite (IH i Hi). reflexivity. }
  rewrite E in H.
  assert (H' : y n * a O == z n * a O).
  { rewrite <- (Qplus_0_l (y n * a O)), <- (Qplus_0_l (z n * a O)).
    rewrite <- (Qplus_opp_r (sumn (fun i => z i * a (n - i)%nat) n)).
    rewrite (Qplus_comm (sumn _ n)), <- !Qplus_assoc. rewrite H. reflexivity. }
  apply (Qmult_inj_r _ _ (a O) Ha). exact H'.
Qed.

Definition qnat (n : nat) : Q := inject_Z (Z.of_nat n).
Definition pD (a : ps) : ps := fun n => qnat (S n) * a (S n).
Definition pI (a : ps) : ps := fun n => match n with O => 0 | S m => a m / qnat (S m) end.

Lemma qnat_0 : qnat 0 == 0.
Proof. reflexivity. Qed.
Lemma qnat_S n : qnat (S n) == qnat n + 1.
Proof. unfold qnat. rewrite Nat2Z.inj_succ, <- Z.add_1_r, inject_Z_plus. reflexivity. Qed.
Lemma pC_qnat_S n : pC (qnat (S n)) =p (pC (qnat n) + p1)%ps.
Proof. unfold p1. rewrite pC_add. apply pC_proper, qnat_S. Qed.
Lemma qnat_add n m : qnat (n + m) == qnat n + qnat m.
Proof. unfold qnat. rewrite Nat2Z.inj_add, inject_Z_plus. reflexivity. Qed.
Lemma qnat_neq0 n : (1 <= n)%nat -> ~ qnat n == 0.
Proof. intros H. unfold qnat, Qeq; simpl. lia. Qed.
Lemma qnat_S_neq0 n : ~ qnat (S n) == 0.
Proof. apply qnat_neq0. lia. Qed.

Global Instance pD_proper : Proper (peq ==> peq) pD.
Proof. intros a a' Ha n; unfold pD; rewrite (Ha (S n)); reflexivity. Qed.
Global Instance pI_proper : Proper (peq ==> peq) pI.
Proof. intros a a' Ha [|n]; unfold pI; [reflexivity|rewrite (Ha n); reflexivity]. Qed.

Lemma pD_pI a : pD (pI a) =p a.
Proof. intros n; unfold pD, pI. field. apply qnat_S_neq0. Qed.
Lemma pI_0 a : pI a O == 0.
Proof. reflexivity. Qed.
Lemma eqn_pD n a b : eqn (S n) a b -> eqn n (pD a) (pD b).
Proof. intros H k Hk; unfold pD; rewrite (H (S k)) by lia; reflexivity. Qed.
Lemma eqn_pI n a b : eqn n a b -> eqn (S n) (pI a) (pI b).
Proof. intros H [|k] Hk; unfold pI; [reflexivity|rewrite (H k) by lia; reflexivity]. Qed.
Lemma pD_eqn_S n a b : a O == b O -> eqn n (pD a) (pD b) -> eqn (S n) a b.
Proof.
  intros H0 H [|k] Hk; [assumption|].
  specialize (H k ltac:(lia)). unfold pD in H.
  apply (Qmult_inj_l _ _ (qnat (S k)) (qnat_S_neq0 k)). exact H.
Qed.
Lemma pD_add a b : pD (a + b)%ps =p (pD a + pD b)%ps.
Proof. intros n; unfold pD, padd_s; ring. Qed.
Lemma pD_sub a b : pD (a - b)%ps =p (pD a - pD b)%ps.
Proof. intros n; unfold pD, psub_s; ring. Qed.
Lemma pD_opp a : pD (- a)%ps =p (- pD a)%ps.
Proof. intros n; unfold pD, popp; ring. Qed.
Lemma pD_C c : pD (pC c) =p p0.
Proof. intros n; unfold pD, pC, p0; ring. Qed.
Lemma pD_0 : pD p0 =p p0.
Proof. intros n; unfold pD, p0; ring. Qed.
Lemma pD_scale c a : pD (pscale c a) =p pscale c (pD a).
Proof. intros n; unfold pD, pscale; ring. Qed.
Lemma pD_pX : pD pX =p p1.
Proof. intros [|n]; unfold pD, pX, p1, pC, qnat; simpl; ring. Qed.
Lemma vge_pD m a : vge (S m) a -> vge m (pD a).
Proof. intros H k Hk; unfold pD; rewrite (H (S k)) by lia; ring. Qed.

(* Leibniz rule *)
Lemma pD_mul a b : pD (a * b)%ps =p (pD a * b + a * pD b)%ps.
Proof.
  intros n. unfold pD, padd_s, pmul_s.
  rewrite <- sumn_scale.
  transitivity (sumn (fun i => qnat i * a i * b (S n - i)%nat) (S (S n))
                + sumn (fun i => a i * (qnat (S n - i) * b (S n - i)%nat)) (S (S n))).
  { rewrite <- sumn_add. apply sumn_ext; intros i Hi.
    replace (S n) with (i + (S n - i))%nat at 1 by lia. rewrite qnat_add. ring. }
  apply Qplus_comp.
  - rewrite (sumn_shift (fun i => qnat i * a i * b (S n - i)%nat) (S n)).
    rewrite qnat_0.
    setoid_replace (0 * a O * b (S n - 0)%nat) with 0 by ring.
    rewrite Qplus_0_l. apply sumn_ext; intros i Hi.
    replace (S n - S i)%nat with (n - i)%nat by lia. ring.
  - rewrite (sumn_S (fun i => a i * (qnat (S n - i) * b (S n - i)%nat)) (S n)).
    replace (S n - S n)%nat with O by lia.
    rewrite qnat_0.
    setoid_replace (a (S n) * (0 * b O)) with 0 by ring.
    rewrite Qplus_0_r. apply sumn_ext; intros i Hi.
    replace (S n - i)%nat with (S (n - i)) by lia. reflexivity.
Qed.

Definition causal (F : ps -> ps) : Prop :=
  forall m y z, eqn m y z -> eqn m (F y) (F z).

Lemma pmul_1_r a : (a * p1)%ps =p a.
Proof. ring. Qed.
Lemma pD_pC_mul c a : pD (pC c * a)%ps =p (pC c * pD a)%ps.
Proof. rewrite pD_mul. rewrite (pD_C c). ring. Qed.

(* Systems y_i' A_i(y) = B_i(y): the coefficient of x^(m+1) in y_i is determined by the coefficients up to x^m of
   all components, since A and B look no further than they are asked and A_i(y) is a unit. *)
Theorem ode_sys_unique {I : Type} (A B : (I -> ps) -> I -> ps) (n : nat) (y z : I -> ps) :
  (forall m y z, (forall i, eqn m (y i) (z i)) ->
                 forall i, eqn m (A y i) (A z i) /\ eqn m (B y i) (B z i)) ->
  (forall i, ~ A y i O == 0) ->
  (forall i, eqn n (pD (y i) * A y i)%ps (B y i)) -> (forall i, eqn n (pD (z i) * A z i)%ps (B z i)) ->
  (forall i, y i O == z i O) -> forall i, eqn (S n) (y i) (z i).
Proof.
  intros HC HA Hy Hz H0.
  assert (G : forall m, (m <= n)%nat -> forall i, eqn (S m) (y i) (z i)).
  { induction m; intros Hm i; (apply pD_eqn_S; [apply H0|]); [apply eqn_0|].
    destruct (HC (S m) y z (fun j => IHm ltac:(lia) j) i) as [EA EB].
    apply (cancel_unit _ _ _ (A y i) (HA i)).
    rewrite (eqn_le n (S m) _ _ Hm (Hy i)), EB, EA. symmetry. apply (eqn_le n); [exact Hm|apply Hz]. }
  apply G. lia.
Qed.

Corollary ode_implicit_unique (A B : ps -> ps) (n : nat) (y z : ps) :
  causal A -> causal B -> ~ A y O == 0 ->
  eqn n (pD y * A y)%ps (B y) -> eqn n (pD z * A z)%ps (B z) -> y O == z O -> eqn (S n) y z.
Proof.
  intros HA HB Hu Hy Hz H0.
  apply (ode_sys_unique (fun Y (_ : unit) => A (Y tt)) (fun Y _ => B (Y tt)) n (fun _ => y) (fun _ => z));
    try (intros _; assumption); [|exact tt].
  intros m y' z' H _. split; [apply HA|apply HB]; apply H.
Qed.

Theorem ode_unique (F : ps -> ps) (n : nat) (y z : ps) :
  causal F -> eqn n (pD y) (F y) -> eqn n (pD z) (F z) -> y O == z O -> eqn (S n) y z.
Proof.
  intros HF Hy Hz. apply (ode_implicit_unique (fun _ => p1) F); [|exact HF|discriminate| |].
  - intros m a b _. reflexivity.
  - rewrite pmul_1_r. exact Hy.
  - rewrite pmul_1_r. exact Hz.
Qed.

(* linear version used for log / atan / atanh / asin: y' * a = b with a unit *)
Theorem lin_ode_unique (n : nat) (a b y z : ps) :
  ~ a O == 0 -> eqn n (pD y * a)%ps b -> eqn n (pD z * a)%ps b -> y O == z O -> eqn (S n) y z.
Proof.
  apply (ode_implicit_unique (fun _ => a) (fun _ => b)); intros m u v _; reflexivity.
Qed.

(* coupled pairs  y1' = g y2,  y2' = sg * g y1  (sg = 1: sinh/cosh, sg = -1: sin/cos) *)
Theorem ode_unique_pair (g : ps) (sg : Q) (n : nat) (y1 y2 z1 z2 : ps) :
  eqn n (pD y1) (g * y2)%ps -> eqn n (pD y2) (pscale sg (g * y1)%ps) ->
  eqn n (pD z1) (g * z2)%ps -> eqn n (pD z2) (pscale sg (g * z1)%ps) ->
  y1 O == z1 O -> y2 O == z2 O ->
  eqn (S n) y1 z1 /\ eqn (S n) y2 z2.
Proof.
  intros Hy1 Hy2 Hz1 Hz2 H1 H2.
  assert (G : forall b : bool, eqn (S n) (if b then y1 else y2) (if b then z1 else z2)).
  { apply (ode_sys_unique (fun _ _ => p1)
             (fun Y (b : bool) => if b then (g * Y false)%ps else pscale sg (g * Y true)%ps)).
    - intros m y z H i. split; [reflexivity|].
      destruct i; [|apply eqn_scale]; (apply eqn_mul; [reflexivity|apply H]).
    - intros i. discriminate.
    - intros [|]; rewrite pmul_1_r; assumption.
    - intros [|]; rewrite pmul_1_r; assumption.
    - intros [|]; assumption. }
  split; [apply (G true)|apply (G false)].
Qed.

(* the Lambert W problem  W E = s,  E' = W' E:  E solves  E' (E + s) = s' E,  and W = s / E *)
Theorem lambert_unique (n : nat) (s w1 E1 w2 E2 : ps) :
  w1 O == 0 -> w2 O == 0 -> E1 O == 1 -> E2 O == 1 ->
  eqn (n - 1) (pD E1) (pD w1 * E1)%ps -> eqn (n - 1) (pD E2) (pD w2 * E2)%ps ->
  eqn n (w1 * E1)%ps s -> eqn n (w2 * E2)%ps s ->
  eqn n w1 w2 /\ eqn n E1 E2.
Proof.
  intros A1 A2 B1 B2 D1 D2 M1 M2. destruct n as [|k]; [split; apply eqn_0|].
  cbn [Nat.sub] in D1, D2. rewrite Nat.sub_0_r in D1, D2.
  assert (HE : forall w E, eqn k (pD E) (pD w * E)%ps -> eqn (S k) (w * E)%ps s ->
                           eqn k (pD E * (E + s))%ps (pD s * E)%ps).
  { intros w E D M.
    transitivity (pD E * (E + w * E))%ps.
    { apply eqn_mul; [reflexivity|]. apply eqn_add; [reflexivity|].
      symmetry. apply (eqn_le (S k)); [lia|exact M]. }
    transitivity (pD (w * E)%ps * E)%ps; [|apply eqn_mul; [apply eqn_pD; exact M|reflexivity]].
    rewrite pD_mul, <- D. apply peq_eqn. ring. }
  assert (EE : eqn (S k) E1 E2).
  { apply (ode_implicit_unique (fun E => (E + s)%ps) (fun E => (pD s * E)%ps)).
    - intros m a b H. apply eqn_add; [exact H|reflexivity].
    - intros m a b H. apply eqn_mul; [reflexivity|exact H].
    - unfold padd_s. rewrite <- (M1 O) by lia. rewrite pmul_coef0, A1, B1. discriminate.
    - apply (HE w1); assumption.
    - apply (HE w2); assumption.
    - rewrite B1, B2. reflexivity. }
  split; [|exact EE].
  apply (cancel_unit _ _ _ E1); [rewrite B1; discriminate|].
  rewrite M1, EE. symmetry. exact M2.
Qed.

(* A solution modulo x^(n-1) of a problem posed with T, and an exact solution of the same problem posed with u,
   agree modulo x^n when T and u do. *)
Lemma ode_transfer (phi : ps -> ps) (n : nat) (T u R y : ps) :
  causal phi -> (1 <= n)%nat -> eqn n T u -> R O == y O ->
  eqn (n - 1) (pD R) (pD T * phi R)%ps -> pD y =p (pD u * phi y)%ps -> eqn n R y.
Proof.
  intros Hc Hn Hsu H0 HR Hy. destruct n as [|n]; [lia|]. cbn [Nat.sub] in HR. rewrite Nat.sub_0_r in HR.
  apply (ode_unique (fun z => (pD T * phi z)%ps)); [|exact HR| |exact H0].
  - intros m a b Hab. apply eqn_mul; [reflexivity|apply Hc; exact Hab].
  - rewrite Hy. apply eqn_mul; [symmetry; apply eqn_pD; exact Hsu|reflexivity].
Qed.

Lemma lin_transfer (A : ps -> ps) (n : nat) (T u R y : ps) :
  causal A -> ~ A T O == 0 -> (1 <= n)%nat -> eqn n T u -> R O == y O ->
  eqn (n - 1) (pD R * A T)%ps (pD T) -> (pD y * A u)%ps =p pD u -> eqn n R y.
Proof.
  intros Hc Hu Hn Hsu H0 HR Hy. destruct n as [|n]; [lia|]. cbn [Nat.sub] in HR. rewrite Nat.sub_0_r in HR.
  apply (lin_ode_unique n (A T) (pD T) R y Hu HR); [|exact H0].
  transitivity (pD y * A u)%ps.
  - apply eqn_mul; [reflexivity|]. apply Hc. apply (eqn_le (S n)); [lia|exact Hsu].
  - rewrite Hy. symmetry. apply eqn_pD. exact Hsu.
Qed.

Lemma pair_transfer (sg : Q) (n : nat) (T u R1 R2 y1 y2 : ps) :
  (1 <= n)%nat -> eqn n T u -> R1 O == y1 O -> R2 O == y2 O ->
  eqn (n - 1) (pD R1) (pD T * R2)%ps -> eqn (n - 1) (pD R2) (pscale sg (pD T * R1)%ps) ->
  pD y1 =p (pD u * y2)%ps -> pD y2 =p pscale sg (pD u * y1)%ps ->
  eqn n R1 y1 /\ eqn n R2 y2.
Proof.
  intros Hn Hsu H1 H2 HR1 HR2 Hy1 Hy2. destruct n as [|n]; [lia|].
  cbn [Nat.sub] in HR1, HR2. rewrite Nat.sub_0_r in HR1, HR2.
  assert (Du : eqn n (pD u) (pD T)) by (symmetry; apply eqn_pD; exact Hsu).
  apply (ode_unique_pair (pD T) sg); try assumption.
  - rewrite Hy1. apply eqn_mul; [exact Du|reflexivity].
  - rewrite Hy2. apply eqn_scale. apply eqn_mul; [exact Du|reflexivity].
Qed.

Lemma one_neq0 c : c == 1 -> ~ c == 0.
Proof. intros ->. discriminate. Qed.
Lemma unit_1_add_sq a : a O == 0 -> ~ (p1 + a * a)%ps O == 0.
Proof. intros H. unfold padd_s. rewrite pmul_coef0, H. discriminate. Qed.
Lemma unit_1_sub_sq a : a O == 0 -> ~ (p1 - a * a)%ps O == 0.
Proof. intros H. unfold psub_s. rewrite pmul_coef0, H. discriminate. Qed.

Fixpoint ppow_s (a : ps) (n : nat) : ps :=
  match n with O => p1 | S m => (a * ppow_s a m)%ps end.

Global Instance ppow_s_proper : Proper (peq ==> eq ==> peq) ppow_s.
Proof.
  intros a a' Ha n n' <-. induction n; simpl; [reflexivity|].
  apply pmul_proper; assumption.
Qed.
Lemma eqn_ppow n a a' k : eqn n a a' -> eqn n (ppow_s a k) (ppow_s a' k).
Proof. intros H; induction k; simpl; [reflexivity|]. apply eqn_mul; assumption. Qed.
Lemma ppow_s_add a n m : ppow_s a (n + m) =p (ppow_s a n * ppow_s a m)%ps.
Proof. induction n; simpl; [ring|]. rewrite IHn. ring. Qed.
Lemma ppow_s_mul_base a b n : ppow_s (a * b)%ps n =p (ppow_s a n * ppow_s b n)%ps.
Proof. induction n; simpl; [ring|]. rewrite IHn. ring. Qed.
Lemma vge_ppow a k : vge 1 a -> vge k (ppow_s a k).
Proof.
  intros H; induction k; simpl; [intros j Hj; lia|].
  replace (S k) with (1 + k)%nat by lia. apply vge_mul; assumption.
Qed.
Lemma pD_ppow a k : pD (ppow_s a (S k)) =p (pscale (qnat (S k)) (ppow_s a k) * pD a)%ps.
Proof.
  induction k.
  - simpl. rewrite pD_mul. rewrite <- pC_mul.
    rewrite (pD_C 1).
    assert (E1 : pC (qnat 1) =p p1) by (intros [|n]; reflexivity). rewrite E1. ring.
  - change (ppow_s a (S (S k))) with (a * ppow_s a (S k))%ps.
    rewrite pD_mul, IHk. rewrite <- !pC_mul.
    rewrite (pC_qnat_S (S k)). simpl ppow_s. ring.
Qed.

(* roots with the same unit constant term:  a^n - b^n = (a - b) (a^(n-1) + a^(n-2) b + ...)  and the second factor
   is a unit *)
Fixpoint geom (a b : ps) (n : nat) : ps :=
  match n with O => p0 | S k => (ppow_s a k + b * geom a b k)%ps end.

Lemma pow_diff a b n : (ppow_s a n - ppow_s b n)%ps =p ((a - b) * geom a b n)%ps.
Proof.
  induction n; cbn [ppow_s geom]; [ring|].
  transitivity ((a - b) * ppow_s a n + b * ((a - b) * geom a b n))%ps; [|ring].
  rewrite <- IHn. ring.
Qed.

Lemma ppow_s_1 k : ppow_s p1 k =p p1.
Proof. induction k; cbn [ppow_s]; [reflexivity|]. rewrite IHk. ring. Qed.

Lemma ppow_S_coef0 (a : ps) k : ppow_s a (S k) O == a O * ppow_s a k O.
Proof. apply pmul_coef0. Qed.

Lemma ppow_coef0 (a : ps) k : a O == 1 -> ppow_s a k O == 1.
Proof. intros H; induction k; [reflexivity|]. rewrite ppow_S_coef0, H, IHk. ring. Qed.

Lemma ppow_coef0_neq (a : ps) k : ~ a O == 0 -> ~ ppow_s a k O == 0.
Proof.
  intros Ha; induction k; [discriminate|]. rewrite ppow_S_coef0. intro Hz. apply Qmult_integral in Hz. tauto.
Qed.

Lemma geom_coef0 a b k : a O == b O -> geom a b (S k) O == qnat (S k) * ppow_s a k O.
Proof.
  intros H; induction k.
  - cbn [geom ppow_s]. unfold padd_s. rewrite pmul_coef0. change (qnat 1) with 1. change (p0 O) with 0. ring.
  - change (geom a b (S (S k))) with (ppow_s a (S k) + b * geom a b (S k))%ps.
    unfold padd_s. rewrite pmul_coef0, IHk, <- H, ppow_S_coef0, (qnat_S (S k)). ring.
Qed.

Lemma root_unique m (a b : ps) k :
  ~ a O == 0 -> a O == b O -> eqn m (ppow_s a (S k)) (ppow_s b (S k)) -> eqn m a b.
Proof.
  intros Ha Hab H.
  apply eqn_of_vge_sub, eqn_vge. apply (cancel_unit m _ _ (geom a b (S k))).
  - rewrite (geom_coef0 a b k Hab). intro Hz. apply Qmult_integral in Hz.
    destruct Hz as [Hz|Hz]; [exact (qnat_S_neq0 k Hz)|exact (ppow_coef0_neq a k Ha Hz)].
  - rewrite <- pow_diff. assert (Z : (p0 * geom a b (S k))%ps =p p0) by ring. rewrite Z.
    apply vge_eqn, vge_sub. exact H.
Qed.

(* monomials x^i, and the sign (-1)^l of alternating sums of them *)
Definition xpow (i : nat) : ps := fun n => if Nat.eqb n i then 1 else 0.
Definition sgn (l : nat) : Q := if Nat.even l then 1 else -1.

Lemma sgn_S l : sgn (S l) == - sgn l.
Proof.
  unfold sgn. rewrite Nat.even_succ, <- Nat.negb_even. destruct (Nat.even l); cbn [negb]; ring.
Qed.

Lemma pmul_pX a n : (a * pX)%ps n == match n with O => 0 | S m => a m end.
Proof.
  unfold pmul_s. destruct n as [|m].
  - simpl. unfold pX. ring.
  - rewrite (sumn_single _ _ m); [|lia|].
    + replace (S m - m)%nat with 1%nat by lia. unfold pX. ring.
    + intros i Hi Hne. unfold pX.
      destruct (S m - i)%nat as [|[|k]] eqn:Ek; try ring. lia.
Qed.
Lemma xpow_mul_X i : (xpow i * pX)%ps =p xpow (S i).
Proof.
  intros n. rewrite pmul_pX. unfold xpow. destruct n as [|m]; [reflexivity|].
  simpl Nat.eqb. reflexivity.
Qed.
Lemma pD_xpow c i : pD (pC c * xpow (S i))%ps =p (pC (c * qnat (S i)) * xpow i)%ps.
Proof.
  rewrite !pC_mul. intros n. unfold pD, pscale, xpow. cbn [Nat.eqb].
  destruct (Nat.eqb_spec n i) as [->|]; ring.
Qed.
