(* C31 obligation: series_asin / series_asinh return y with y(0) = 0 and y' = s' w where w is a
   power series with w(0) = 1 and w^2 (1 -+ s^2) = 1 modulo x^(prec-1) (the inverse square root
   computed by series_nthroot, resp. series_nthroot and series_invert); since such a w is unique
   the coefficients below x^prec are those of asin(s), asinh(s).  (prec >= 2.) *)
From Coq Require Import QArith List ZArith NArith.
From SE Require Import C31.VisitorModel.
From SE Require Import C31.SeriesSpec C31.Invert C31.Asin C31.SeriesProofs C31.Compose.
Local Open Scope Q_scope.
Theorem C31_asin_spec :
  forall (s : poly) (prec : N),
    wfb s = true -> const0 s = true -> prec_ok2 prec = true ->
    exists r (w : ps), series_asin s prec = Ok r /\ wf r /\ den r O == 0 /\ w O == 1 /\
      eqn (N.to_nat prec - 1) (w * w * (p1 - den s * den s))%ps p1 /\
      pD (den r) =p (pD (den s) * w)%ps.
Proof.
  intros s prec W H Hp.
  exact (asin_spec s prec (wfb_wf s W) (const0_coef s W H) (prec_ok2_lt prec Hp)).
Qed.
Theorem C31_asinh_spec :
  forall (s : poly) (prec : N),
    wfb s = true -> const0 s = true -> prec_ok2 prec = true ->
    exists r (w : ps), series_asinh s prec = Ok r /\ wf r /\ den r O == 0 /\ w O == 1 /\
      eqn (N.to_nat prec - 1) (w * w * (p1 + den s * den s))%ps p1 /\
      pD (den r) =p (pD (den s) * w)%ps.
Proof.
  intros s prec W H Hp.
  exact (asinh_spec s prec (wfb_wf s W) (const0_coef s W H) (prec_ok2_lt prec Hp)).
Qed.
Theorem C31_asin_taylor :
  forall (s : poly) (prec : N) (r : poly) (y v : ps),
    wfb s = true -> const0 s = true -> prec_ok2 prec = true ->
    series_asin s prec = Ok r ->
    y O == 0 -> v O == 1 -> (v * v * (p1 - den s * den s))%ps =p p1 ->
    pD y =p (pD (den s) * v)%ps ->
    eqn (N.to_nat prec) (den r) y.
Proof.
  intros s prec r y v W H Hp Er Y0 V0 Hv Dy.
  exact (proj2 (asin_compose s prec r (den s) y v (wfb_wf s W) (const0_coef s W H) (prec_ok2_lt prec Hp) Er
                  (eqn_refl _ _) Y0 V0 Hv Dy)).
Qed.
Theorem C31_asinh_taylor :
  forall (s : poly) (prec : N) (r : poly) (y v : ps),
    wfb s = true -> const0 s = true -> prec_ok2 prec = true ->
    series_asinh s prec = Ok r ->
    y O == 0 -> v O == 1 -> (v * v * (p1 + den s * den s))%ps =p p1 ->
    pD y =p (pD (den s) * v)%ps ->
    eqn (N.to_nat prec) (den r) y.
Proof.
  intros s prec r y v W H Hp Er Y0 V0 Hv Dy.
  exact (proj2 (asinh_compose s prec r (den s) y v (wfb_wf s W) (const0_coef s W H) (prec_ok2_lt prec Hp) Er
                  (eqn_refl _ _) Y0 V0 Hv Dy)).
Qed.
Print Assumptions C31_asin_spec.
Print Assumptions C31_asinh_spec.
Print Assumptions C31_asin_taylor.
Print Assumptions C31_asinh_taylor.
