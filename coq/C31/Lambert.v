(* C31 -- series_lambertw: Newton iteration W <- W - (e W - s)/(e (W + 1)), e = exp W, along the
   precision chain.  The result W is characterised together with E = exp W:
   W(0) = 0, E(0) = 1, E' = W' E, W E = s. *)
From Coq Require Import QArith Qring Qfield Setoid Morphisms Lia List ZArith NArith.
From SE Require Import C31.SeriesModel C31.PS C31.Newton C31.Sem C31.Invert C31.Exp.
Local Open Scope Q_scope.
Local Open Scope res_scope.


Definition lw_inv (s : poly) (m : N) (w : poly) : Prop :=
  wf w /\ den w O == 0 /\
  exists E : ps, E O == 1 /\
    eqn (N.to_nat m - 1) (pD E) (pD (den w) * E)%ps /\
    eqn (N.to_nat m) (den w * E)%ps (den s).

Lemma lw_step_ok s : wf s -> coef s 0 == 0 -> forall m st w,
  lw_inv s m w -> (st <= 2 * m)%N -> step_ok st ->
  exists w', (do e <- series_exp w st;
              do p3 <- series_invert (pmul e (padd w (pint 1)) st) st;
              Ok (psub w (pmul (psub (pmul e w st) s) p3 st))) = Ok w' /\
             lw_inv s st w'.
Proof.
  intros Ws S0 m st w (Ww & W0 & E0 & E00 & HE0 & HW0) Hst Hok. unfold step_ok in Hok.
  destruct (exp_spec w st Ww W0 ltac:(lia)) as (e & Ee & We & e0 & He).
  rewrite Ee. cbn [bind].
  set (q := pmul e (padd w (pint 1)) st).
  assert (Wq : wf q) by (unfold q; auto with wf).
  assert (Dq : eqn (N.to_nat st) (den q) (den e * (den w + p1))%ps).
  { unfold q. rewrite eqn_pmul by (auto with wf; lia). rewrite den_padd, den_pint_1. reflexivity. }
  assert (q0 : ~ coef q 0 == 0).
  { change (coef q 0) with (den q O). rewrite (Dq O) by lia. rewrite pmul_coef0.
    unfold padd_s. rewrite e0, W0. discriminate. }
  destruct (invert_spec q st Wq q0 ltac:(lia)) as (p3 & E3 & W3 & H3).
  rewrite E3. cbn [bind]. rewrite Dq in H3.
  eexists. split; [reflexivity|]. split; [auto with wf|].
  apply (lambert_newton_step (N.to_nat m) (N.to_nat st) (den s) (den w) E0 (den e) (den p3));
    try assumption; [lia|].
  rewrite den_psub, eqn_pmul, den_psub, eqn_pmul by (auto with wf; lia). apply peq_eqn. ring.
Qed.

Theorem lambertw_spec s prec :
  wf s -> coef s 0 == 0 -> (0 < prec < 2147483648)%N ->
  exists r, series_lambertw s prec = Ok r /\ lw_inv s prec r.
Proof.
  intros Ws S0 Hp. unfold series_lambertw.
  rewrite (find_cf_0 s Ws S0). cbn [negb].
  destruct (newton_loop step_ok (lw_inv s) _ [] prec (step_list_ok prec Hp) (lw_step_ok s Ws S0)) as (r & E & I).
  - split; [apply wf_nil|]. split; [reflexivity|]. exists p1. split; [reflexivity|].
    split; [apply eqn_0|]. intros k Hk. assert (k = O) by lia; subst k.
    rewrite pmul_coef0. change (den [] O) with 0. change (den s O) with (coef s 0). rewrite S0. ring.
  - exists r. split; [exact E|exact I].
Qed.
