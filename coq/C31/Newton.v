(* C31 -- the Newton steps of the series routines, as statements about formal power series: an iterate that solves
   its problem modulo x^m is taken to one that solves it modulo x^st, st <= 2m.  One lemma each for 1/s, for
   s^(-1/k), for y' = s' phi(y) (exp, tan, tanh) and for W exp W = s. *)
From Coq Require Import QArith Qring Qfield Setoid Morphisms Lia Arith List.
From SE Require Import C31.PS.
Local Open Scope Q_scope.

Lemma newton_inverse_step m st p s :
  (st <= 2 * m)%nat -> eqn m (p * s)%ps p1 ->
  eqn st ((p * (p1 + p1 - p * s)) * s)%ps p1.
Proof.
  intros Hst H. apply eqn_of_vge_sub.
  apply (vge_peq st (- ((p * s - p1) * (p * s - p1)))%ps); [ring|].
  intros k Hk; unfold popp.
  assert (V : vge (m + m) ((p * s - p1) * (p * s - p1))%ps).
  { apply vge_mul; apply vge_sub; assumption. }
  rewrite (V k) by lia. ring.
Qed.

Lemma binom_first_order (u : ps) k :
  exists w, ppow_s (p1 + u)%ps k =p (p1 + pC (qnat k) * u + u * u * w)%ps.
Proof.
  induction k.
  - exists p0. cbn [ppow_s]. assert (E : pC (qnat 0) =p p0) by (intros [|n]; reflexivity).
    rewrite E. ring.
  - destruct IHk as [w Hw]. exists (pC (qnat k) + w + u * w)%ps.
    cbn [ppow_s]. rewrite Hw.
    rewrite pC_qnat_S. ring.
Qed.

(* one exact Newton step: if R^n sn = 1 - e then (R (1 + e/n))^n sn = 1 - e^2 * (...) *)
Lemma nthroot_newton_exact (R sn : ps) (k : nat) (m st : nat) :
  (1 <= k)%nat -> (st <= 2 * m)%nat ->
  eqn m (ppow_s R k * sn)%ps p1 ->
  eqn st (ppow_s (R * (p1 + pC (/ qnat k) * (p1 - ppow_s R k * sn)))%ps k * sn)%ps p1.
Proof.
  intros Hk Hst H.
  set (e := (p1 - ppow_s R k * sn)%ps).
  set (u := (pC (/ qnat k) * e)%ps).
  assert (Ve : vge m e).
  { unfold e. apply vge_sub. apply eqn_sym. exact H. }
  destruct (binom_first_order u k) as [w Hw].
  rewrite ppow_s_mul_base, Hw.
  assert (Eku : (pC (qnat k) * u)%ps =p e).
  { unfold u. rewrite pmul_assoc, pC_mulC.
    assert (E1 : qnat k * / qnat k == 1) by (field; apply qnat_neq0; exact Hk).
    rewrite E1. fold p1. ring. }
  assert (Id : (ppow_s R k * (p1 + pC (qnat k) * u + u * u * w) * sn)%ps
               =p (p1 - (e * e - (p1 - e) * (u * u * w)))%ps).
  { rewrite Eku. unfold e. ring. }
  rewrite Id. apply eqn_of_vge_sub.
  assert (Id2 : (p1 - (e * e - (p1 - e) * (u * u * w)) - p1)%ps
                =p (- (e * e) + (p1 - e) * (pC (/ qnat k) * pC (/ qnat k) * w) * (e * e))%ps).
  { unfold u. ring. }
  apply (vge_peq st _ _ (symmetry Id2)).
  assert (Vee : vge (m + m) (e * e)%ps) by (apply vge_mul; exact Ve).
  apply (vge_le (m + m)); [lia|].
  apply vge_add.
  - intros j Hj. unfold popp. rewrite (Vee j Hj). ring.
  - apply (vge_peq _ ((e * e) * ((p1 - e) * (pC (/ qnat k) * pC (/ qnat k) * w)))%ps); [ring|].
    apply vge_mul_l. exact Vee.
Qed.

(* Newton step for y' = T' phi(y).  phi has a second-order expansion with derivative phi' (for the uses: phi y = y, 1 + y^2, 1 - y^2).
   R solves the problem modulo x^(m-1); a is the inverse function L(R) (log, atan, atanh) modulo x^(st-1), i.e.
   a' phi(R) = R'.  Then R + (T - a) phi(R) solves it modulo x^(st-1) for st <= 2m:
   with e = T - a, X = R' - a' phi(R), Y = R' - T' phi(R) the defect is  X + e phi'(R) Y - e^2 (...),  and e
   vanishes below x^m because a and T solve the same linear problem there. *)
Definition second_order (phi phi' : ps -> ps) : Prop :=
  causal phi /\
  (forall r h, exists w, phi (r + h)%ps =p (phi r + h * phi' r + h * h * w)%ps) /\
  (forall r, pD (phi r) =p (phi' r * pD r)%ps).

Lemma second_order_causal phi phi' : second_order phi phi' -> causal phi.
Proof. intros H. apply H. Qed.

Lemma newton_ode_step (phi phi' : ps -> ps) (m st : nat) (T R a r' : ps) :
  second_order phi phi' ->
  (1 <= st <= 2 * m)%nat -> T O == a O -> ~ phi R O == 0 ->
  eqn (m - 1) (pD R) (pD T * phi R)%ps ->
  eqn (st - 1) (pD a * phi R)%ps (pD R) ->
  eqn st r' (R + (T - a) * phi R)%ps ->
  r' O == R O /\ eqn (st - 1) (pD r') (pD T * phi r')%ps.
Proof.
  intros (Hc & HT & HD) Hst H0 Hu HR HA Hr'.
  set (e := (T - a)%ps) in *. set (r1 := (R + e * phi R)%ps) in *.
  (* without loss of generality m <= st *)
  set (k := Nat.min m st).
  assert (HRk : eqn (k - 1) (pD R) (pD T * phi R)%ps) by (apply (eqn_le (m - 1)); [lia|exact HR]).
  assert (Hk : (k <= st <= 2 * k)%nat) by lia. clearbody k. clear HR.
  assert (Ve : vge k e).
  { apply vge_sub. destruct k as [|k]; [apply eqn_0|].
    apply pD_eqn_S; [exact H0|]. apply (cancel_unit k _ _ (phi R) Hu).
    rewrite (eqn_le (st - 1)%nat k _ _ ltac:(lia) HA). cbn [Nat.sub] in HRk. rewrite Nat.sub_0_r in HRk.
    symmetry. exact HRk. }
  split.
  - rewrite (Hr' O) by lia. unfold r1, padd_s. rewrite pmul_coef0. unfold e, psub_s. rewrite H0. ring.
  - rewrite (eqn_pD (st - 1)%nat r' r1) by (replace (S (st - 1)) with st by lia; exact Hr').
    rewrite (Hc (st - 1)%nat r' r1) by (apply (eqn_le st); [lia|exact Hr']).
    apply eqn_of_vge_sub.
    destruct (HT R (e * phi R)%ps) as [w Hw].
    apply (vge_peq _ ((pD R - pD a * phi R)
                      + (e * phi' R) * (pD R - pD T * phi R)
                      + (e * e) * (- (pD T * (phi R * phi R * w))))%ps).
    { unfold r1. rewrite Hw, pD_add, pD_mul, HD. unfold e. rewrite pD_sub. ring. }
    apply vge_add; [apply vge_add|].
    + apply vge_sub. symmetry. exact HA.
    + apply (vge_le (k + (k - 1))); [lia|].
      apply vge_mul; [apply vge_mul_l; exact Ve|]. apply vge_sub. exact HRk.
    + apply (vge_le (k + k)); [lia|]. apply vge_mul_l, vge_mul; exact Ve.
Qed.

Lemma second_order_id : second_order (fun y => y) (fun _ => p1).
Proof.
  split; [intros m y z H; exact H|]. split; [intros r h; exists p0; ring|intros r; ring].
Qed.
Lemma second_order_1_add_sq : second_order (fun y => p1 + y * y)%ps (fun y => (p1 + p1) * y)%ps.
Proof.
  split; [intros m y z H; apply eqn_add; [reflexivity|apply eqn_mul; exact H]|].
  split; [intros r h; exists p1; ring|]. intros r. rewrite pD_add, pD_mul, (pD_C 1). ring.
Qed.
Lemma second_order_1_sub_sq : second_order (fun y => p1 - y * y)%ps (fun y => - ((p1 + p1) * y))%ps.
Proof.
  split; [intros m y z H; apply eqn_sub; [reflexivity|apply eqn_mul; exact H]|].
  split; [intros r h; exists (- p1)%ps; ring|]. intros r. rewrite pD_sub, pD_mul, (pD_C 1). ring.
Qed.

(* Newton step for W exp(W) = T.  W, with E0 in the role of exp W, solves the problem modulo x^m; e is exp W modulo x^(st-1) and q the inverse
   of e (W + 1) modulo x^st.  Then w' = W - (W e - T) q solves it modulo x^st for st <= 2m, with e (1 + d),
   d = w' - W, in the role of exp w': the defect f = W e - T vanishes below x^m because e and E0 solve the same
   problem there, and d = - f q with it. *)
Lemma lambert_newton_step (m st : nat) (T W E0 e q w' : ps) :
  (1 <= st <= 2 * m)%nat -> T O == 0 -> W O == 0 -> E0 O == 1 -> e O == 1 ->
  eqn (m - 1) (pD E0) (pD W * E0)%ps -> eqn m (W * E0)%ps T ->
  eqn (st - 1) (pD e) (pD W * e)%ps ->
  eqn st (q * (e * (W + p1)))%ps p1 ->
  eqn st w' (W - (W * e - T) * q)%ps ->
  w' O == 0 /\ exists E, E O == 1 /\ eqn (st - 1) (pD E) (pD w' * E)%ps /\ eqn st (w' * E)%ps T.
Proof.
  intros Hst T0 W0 E00 e0 HE0 HW0 He Hq Hw'.
  set (f := (W * e - T)%ps) in *. set (d := (- (f * q))%ps).
  assert (Dw' : eqn st w' (W + d)%ps) by (rewrite Hw'; apply peq_eqn; unfold d; ring).
  (* without loss of generality m <= st *)
  set (k := Nat.min m st).
  assert (HE0k : eqn (k - 1) (pD E0) (pD W * E0)%ps) by (apply (eqn_le (m - 1)); [lia|exact HE0]).
  assert (HW0k : eqn k (W * E0)%ps T) by (apply (eqn_le m); [lia|exact HW0]).
  assert (Hk : (k <= st <= 2 * k)%nat) by lia. clearbody k. clear HE0 HW0.
  assert (EE : eqn k e E0).
  { destruct k as [|k]; [apply eqn_0|]. cbn [Nat.sub] in HE0k. rewrite Nat.sub_0_r in HE0k.
    apply (ode_unique (fun z => (pD W * z)%ps)); [|apply (eqn_le (st - 1)); [lia|exact He]|exact HE0k|].
    - intros j x y Hxy. apply eqn_mul; [reflexivity|exact Hxy].
    - rewrite e0, E00. reflexivity. }
  assert (Vf : vge k f) by (apply vge_sub; rewrite EE; exact HW0k).
  assert (Vd : vge k d).
  { intros j Hj. unfold d, popp. rewrite (vge_mul_l k f q Vf j Hj). ring. }
  assert (f0 : f O == 0) by (unfold f, psub_s; rewrite pmul_coef0, W0, T0; ring).
  assert (d0 : d O == 0) by (unfold d, popp; rewrite pmul_coef0, f0; ring).
  split; [rewrite (Dw' O) by lia; unfold padd_s; rewrite W0, d0; ring|].
  exists (e * (p1 + d))%ps.
  split; [rewrite pmul_coef0; unfold padd_s; rewrite e0, d0; reflexivity|]. split.
  - rewrite (eqn_pD (st - 1)%nat w' (W + d)%ps) by (replace (S (st - 1)) with st by lia; exact Dw').
    apply eqn_of_vge_sub.
    apply (vge_peq _ ((pD e - pD W * e) * (p1 + d) + d * (pD d * (- e)))%ps).
    { rewrite pD_mul, !pD_add, (pD_C 1). ring. }
    apply vge_add.
    + apply vge_mul_l. apply vge_sub. exact He.
    + apply (vge_le (k + (k - 1))); [lia|]. apply vge_mul; [exact Vd|]. apply vge_mul_l.
      destruct k as [|k]; [intros j Hj; lia|]. cbn [Nat.sub]. rewrite Nat.sub_0_r. apply vge_pD. exact Vd.
  - rewrite Dw'. apply eqn_of_vge_sub.
    apply (vge_peq _ ((p1 - q * (e * (W + p1))) * f + (d * d) * e)%ps); [unfold d, f; ring|].
    apply vge_add.
    + apply vge_mul_l. apply vge_sub. symmetry. exact Hq.
    + apply (vge_le (k + k)); [lia|]. apply vge_mul_l, vge_mul; exact Vd.
Qed.
