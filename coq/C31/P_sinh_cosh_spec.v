(* C31 obligation: series_sinh and series_cosh ((e +- 1/e)/2 with e = series_exp) solve the
   coupled problem  sh(0) = 0, ch(0) = 1, sh' = s' ch, ch' = s' sh  modulo x^(prec-1); by
   uniqueness for such pairs their coefficients below x^prec are those of sinh(s), cosh(s). *)
From Coq Require Import QArith List ZArith NArith.
From SE Require Import C31.VisitorModel.
From SE Require Import C31.SeriesSpec C31.Invert C31.Hyp C31.Compose.
Local Open Scope Q_scope.
Theorem C31_sinh_cosh_spec :
  forall (s : poly) (prec : N),
    wfb s = true -> const0 s = true -> prec_ok prec = true ->
    exists rs rc, series_sinh s prec = Ok rs /\ series_cosh s prec = Ok rc /\
      wf rs /\ wf rc /\ den rs O == 0 /\ den rc O == 1 /\
      eqn (N.to_nat prec - 1) (pD (den rs)) (pD (den s) * den rc)%ps /\
      eqn (N.to_nat prec - 1) (pD (den rc)) (pD (den s) * den rs)%ps.
Proof. exact (guarded0 _ sinh_cosh_spec). Qed.
Theorem C31_sinh_cosh_taylor :
  forall (s : poly) (prec : N) (rs rc : poly) (ys yc : ps),
    wfb s = true -> const0 s = true -> prec_ok prec = true ->
    series_sinh s prec = Ok rs -> series_cosh s prec = Ok rc ->
    ys O == 0 -> yc O == 1 ->
    pD ys =p (pD (den s) * yc)%ps -> pD yc =p (pD (den s) * ys)%ps ->
    eqn (N.to_nat prec) (den rs) ys /\ eqn (N.to_nat prec) (den rc) yc.
Proof.
  intros s prec rs rc ys yc W H Hp Es Ec Ys0 Yc0 Yds Ydc. destruct (guards0 s prec W H Hp) as (Ws & S0 & Hlt).
  destruct (sinh_cosh_compose s prec rs rc (den s) ys yc Ws S0 Hlt Es Ec (eqn_refl _ _) Ys0 Yc0 Yds Ydc) as [[_ A] [_ B]].
  split; assumption.
Qed.
Print Assumptions C31_sinh_cosh_spec.
Print Assumptions C31_sinh_cosh_taylor.
