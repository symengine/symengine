(* C31 -- compositional form of the Taylor theorems: if the argument polynomial agrees modulo
   x^prec with a formal power series u (the Taylor series of the inner expression), then the
   result of every series_* function is well formed and agrees modulo x^prec with the formal power
   series y that solves the defining problem of the function WITH RESPECT TO u.  These are the steps
   of the induction over an expression tree performed by SeriesVisitor (guards: function arguments
   without constant term, inverted series with non-zero constant term); at u := den s they say that
   the computed coefficients are those of any formal solution. *)
From Coq Require Import QArith Qring Qfield Setoid Morphisms Lia List ZArith NArith Bool.
From SE Require Import C31.VisitorModel.
From SE Require Import C31.SeriesModel C31.PS C31.Newton C31.Sem C31.Invert C31.LogAtan C31.Exp C31.Nthroot C31.Hyp
  C31.SinCos C31.Tan C31.Asin C31.Lambert.
Local Open Scope Q_scope.

(* what a specification "exists r, x = Ok r /\ P r" says of a given result *)
Lemma ok_inv {A : Type} {x : res A} {r : A} {P : A -> Prop} :
  (exists r', x = Ok r' /\ P r') -> x = Ok r -> P r.
Proof. intros (r' & E & H) Er. rewrite Er in E. injection E as <-. exact H. Qed.

Theorem add_compose a b prec (u v : ps) :
  eqn (N.to_nat prec) (den a) u -> eqn (N.to_nat prec) (den b) v ->
  eqn (N.to_nat prec) (den (padd a b)) (u + v)%ps.
Proof. intros Ha Hb. rewrite den_padd. apply eqn_add; assumption. Qed.

Theorem mul_compose a b prec (u v : ps) :
  wf a -> wf b -> (prec < 2147483648)%N ->
  eqn (N.to_nat prec) (den a) u -> eqn (N.to_nat prec) (den b) v ->
  eqn (N.to_nat prec) (den (pmul a b prec)) (u * v)%ps.
Proof.
  intros Wa Wb Hp Ha Hb.
  rewrite (eqn_pmul a b prec Wa Wb Hp). apply eqn_mul; assumption.
Qed.

Theorem invert_compose s prec r (u v : ps) :
  wf s -> ~ coef s 0 == 0 -> (prec < 2147483648)%N ->
  series_invert s prec = Ok r ->
  eqn (N.to_nat prec) (den s) u -> (v * u)%ps =p p1 ->
  wf r /\ eqn (N.to_nat prec) (den r) v.
Proof.
  intros W H Hp Er Hsu Hv. destruct (ok_inv (invert_spec s prec W H Hp) Er) as (Wr & HR).
  split; [exact Wr|]. apply (inverse_unique _ _ _ (den s) u Hsu HR). apply peq_eqn. exact Hv.
Qed.

(* exp, tan, tanh: y' = u' phi(y).  x: the call series_f s prec, with its specification *)
Lemma ode_compose (phi phi' : ps -> ps) (y0 : Q) (x : res poly) s prec r (u y : ps) :
  second_order phi phi' -> (0 < prec)%N ->
  (exists r, x = Ok r /\ wf r /\ den r O == y0 /\
             eqn (N.to_nat prec - 1) (pD (den r)) (pD (den s) * phi (den r))%ps) ->
  x = Ok r -> eqn (N.to_nat prec) (den s) u -> y O == y0 -> pD y =p (pD u * phi y)%ps ->
  wf r /\ eqn (N.to_nat prec) (den r) y.
Proof.
  intros H2 Hp Hx Er Hsu Y0 Yd. destruct (ok_inv Hx Er) as (Wr & R0 & HR). split; [exact Wr|].
  apply (ode_transfer phi _ (den s) u); [exact (second_order_causal _ _ H2)|lia|exact Hsu| |exact HR|exact Yd].
  rewrite R0, Y0. reflexivity.
Qed.

Theorem exp_compose s prec r (u y : ps) :
  wf s -> coef s 0 == 0 -> (0 < prec < 2147483648)%N ->
  series_exp s prec = Ok r ->
  eqn (N.to_nat prec) (den s) u -> y O == 1 -> pD y =p (pD u * y)%ps ->
  wf r /\ eqn (N.to_nat prec) (den r) y.
Proof.
  intros W H Hp. exact (ode_compose _ _ 1 _ s prec r u y second_order_id (proj1 Hp) (exp_spec s prec W H Hp)).
Qed.

Theorem tan_compose s prec r (u y : ps) :
  wf s -> coef s 0 == 0 -> (0 < prec < 2147483648)%N ->
  series_tan s prec = Ok r ->
  eqn (N.to_nat prec) (den s) u -> y O == 0 -> pD y =p (pD u * (p1 + y * y))%ps ->
  wf r /\ eqn (N.to_nat prec) (den r) y.
Proof.
  intros W H Hp.
  exact (ode_compose _ _ 0 _ s prec r u y second_order_1_add_sq (proj1 Hp) (tan_spec s prec W H Hp)).
Qed.

Theorem tanh_compose s prec r (u y : ps) :
  wf s -> coef s 0 == 0 -> (0 < prec < 2147483648)%N ->
  series_tanh s prec = Ok r ->
  eqn (N.to_nat prec) (den s) u -> y O == 0 -> pD y =p (pD u * (p1 - y * y))%ps ->
  wf r /\ eqn (N.to_nat prec) (den r) y.
Proof.
  intros W H Hp.
  exact (ode_compose _ _ 0 _ s prec r u y second_order_1_sub_sq (proj1 Hp) (tanh_spec s prec W H Hp)).
Qed.

(* log, atan, atanh: y' A(u) = u' *)
Lemma lin_compose (A : ps -> ps) (x : res poly) s prec r (u y : ps) :
  causal A -> ~ A (den s) O == 0 -> (0 < prec)%N ->
  (exists r, x = Ok r /\ wf r /\ den r O == 0 /\
             eqn (N.to_nat prec - 1) (pD (den r) * A (den s))%ps (pD (den s))) ->
  x = Ok r -> eqn (N.to_nat prec) (den s) u -> y O == 0 -> (pD y * A u)%ps =p pD u ->
  wf r /\ eqn (N.to_nat prec) (den r) y.
Proof.
  intros HA Hu Hp Hx Er Hsu Y0 Yd. destruct (ok_inv Hx Er) as (Wr & R0 & HR). split; [exact Wr|].
  apply (lin_transfer A _ (den s) u); [exact HA|exact Hu|lia|exact Hsu| |exact HR|exact Yd].
  rewrite R0, Y0. reflexivity.
Qed.

Theorem log_compose s prec r (u y : ps) :
  wf s -> coef s 0 == 1 -> (0 < prec < 2147483648)%N ->
  series_log s prec = Ok r ->
  eqn (N.to_nat prec) (den s) u -> y O == 0 -> (pD y * u)%ps =p pD u ->
  wf r /\ eqn (N.to_nat prec) (den r) y.
Proof.
  intros W H Hp.
  apply (lin_compose (fun z => z) _ s prec r u y (second_order_causal _ _ second_order_id)); [|exact (proj1 Hp)|exact (log_spec s prec W H Hp)].
  change (den s O) with (coef s 0). rewrite H. discriminate.
Qed.

Theorem atan_compose s prec r (u y : ps) :
  wf s -> coef s 0 == 0 -> (0 < prec < 2147483648)%N ->
  series_atan s prec = Ok r ->
  eqn (N.to_nat prec) (den s) u -> y O == 0 -> (pD y * (p1 + u * u))%ps =p pD u ->
  wf r /\ eqn (N.to_nat prec) (den r) y.
Proof.
  intros W H Hp.
  exact (lin_compose (fun z => p1 + z * z)%ps _ s prec r u y (second_order_causal _ _ second_order_1_add_sq)
           (unit_1_add_sq _ H) (proj1 Hp) (atan_spec s prec W H Hp)).
Qed.

Theorem atanh_compose s prec r (u y : ps) :
  wf s -> coef s 0 == 0 -> (0 < prec < 2147483648)%N ->
  series_atanh s prec = Ok r ->
  eqn (N.to_nat prec) (den s) u -> y O == 0 -> (pD y * (p1 - u * u))%ps =p pD u ->
  wf r /\ eqn (N.to_nat prec) (den r) y.
Proof.
  intros W H Hp.
  exact (lin_compose (fun z => p1 - z * z)%ps _ s prec r u y (second_order_causal _ _ second_order_1_sub_sq)
           (unit_1_sub_sq _ H) (proj1 Hp) (atanh_spec s prec W H Hp)).
Qed.

Theorem sin_cos_compose s prec rs rc (u ys yc : ps) :
  wf s -> coef s 0 == 0 -> (0 < prec < 2147483648)%N ->
  series_sin s prec = Ok rs -> series_cos s prec = Ok rc ->
  eqn (N.to_nat prec) (den s) u -> ys O == 0 -> yc O == 1 ->
  pD ys =p (pD u * yc)%ps -> pD yc =p (- (pD u * ys))%ps ->
  (wf rs /\ eqn (N.to_nat prec) (den rs) ys) /\ (wf rc /\ eqn (N.to_nat prec) (den rc) yc).
Proof.
  intros W H Hp Es Ec Hsu Ys0 Yc0 Yds Ydc.
  destruct (sin_cos_spec s prec W H Hp) as (rs' & rc' & Es' & Ec' & Ws & Wc & S0 & C0 & HS & HC).
  rewrite Es in Es'. injection Es' as <-. rewrite Ec in Ec'. injection Ec' as <-.
  destruct (pair_transfer (-1 # 1) (N.to_nat prec) (den s) u (den rs) (den rc) ys yc) as [A B];
    [lia|exact Hsu|rewrite S0, Ys0; reflexivity|rewrite C0, Yc0; reflexivity|exact HS| |exact Yds| |tauto].
  - rewrite HC. apply peq_eqn. intros k; unfold pscale, popp; ring.
  - rewrite Ydc. intros k; unfold pscale, popp; ring.
Qed.

Theorem sinh_cosh_compose s prec rs rc (u ys yc : ps) :
  wf s -> coef s 0 == 0 -> (0 < prec < 2147483648)%N ->
  series_sinh s prec = Ok rs -> series_cosh s prec = Ok rc ->
  eqn (N.to_nat prec) (den s) u -> ys O == 0 -> yc O == 1 ->
  pD ys =p (pD u * yc)%ps -> pD yc =p (pD u * ys)%ps ->
  (wf rs /\ eqn (N.to_nat prec) (den rs) ys) /\ (wf rc /\ eqn (N.to_nat prec) (den rc) yc).
Proof.
  intros W H Hp Es Ec Hsu Ys0 Yc0 Yds Ydc.
  destruct (sinh_cosh_spec s prec W H Hp) as (rs' & rc' & Es' & Ec' & Ws & Wc & S0 & C0 & HS & HC).
  rewrite Es in Es'. injection Es' as <-. rewrite Ec in Ec'. injection Ec' as <-.
  destruct (pair_transfer 1 (N.to_nat prec) (den s) u (den rs) (den rc) ys yc) as [A B];
    [lia|exact Hsu|rewrite S0, Ys0; reflexivity|rewrite C0, Yc0; reflexivity|exact HS| |exact Yds| |tauto].
  - rewrite HC. apply peq_eqn. intros k; unfold pscale; ring.
  - rewrite Ydc. intros k; unfold pscale; ring.
Qed.

Theorem asin_compose s prec r (u y v : ps) :
  wf s -> coef s 0 == 0 -> (1 < prec < 2147483648)%N ->
  series_asin s prec = Ok r ->
  eqn (N.to_nat prec) (den s) u ->
  y O == 0 -> v O == 1 -> (v * v * (p1 - u * u))%ps =p p1 -> pD y =p (pD u * v)%ps ->
  wf r /\ eqn (N.to_nat prec) (den r) y.
Proof.
  intros W H Hp Er Hsu Y0 V0 Hv Dy.
  destruct (asin_spec s prec W H Hp) as (r' & w & Er' & Wr & R0 & W0 & Hw & Dr).
  rewrite Er in Er'. injection Er' as <-. split; [exact Wr|].
  apply (arc_transfer _ (den s) u (p1 - den s * den s)%ps (p1 - u * u)%ps w v); try assumption;
    [lia| |apply unit_1_sub_sq; exact H|rewrite R0, Y0; reflexivity].
  apply (second_order_causal _ _ second_order_1_sub_sq). apply (eqn_le (N.to_nat prec)); [lia|exact Hsu].
Qed.

Theorem asinh_compose s prec r (u y v : ps) :
  wf s -> coef s 0 == 0 -> (1 < prec < 2147483648)%N ->
  series_asinh s prec = Ok r ->
  eqn (N.to_nat prec) (den s) u ->
  y O == 0 -> v O == 1 -> (v * v * (p1 + u * u))%ps =p p1 -> pD y =p (pD u * v)%ps ->
  wf r /\ eqn (N.to_nat prec) (den r) y.
Proof.
  intros W H Hp Er Hsu Y0 V0 Hv Dy.
  destruct (asinh_spec s prec W H Hp) as (r' & w & Er' & Wr & R0 & W0 & Hw & Dr).
  rewrite Er in Er'. injection Er' as <-. split; [exact Wr|].
  apply (arc_transfer _ (den s) u (p1 + den s * den s)%ps (p1 + u * u)%ps w v); try assumption;
    [lia| |apply unit_1_add_sq; exact H|rewrite R0, Y0; reflexivity].
  apply (second_order_causal _ _ second_order_1_add_sq). apply (eqn_le (N.to_nat prec)); [lia|exact Hsu].
Qed.

Theorem lambertw_compose s prec r (u y F : ps) :
  wf s -> coef s 0 == 0 -> (0 < prec < 2147483648)%N ->
  series_lambertw s prec = Ok r ->
  eqn (N.to_nat prec) (den s) u ->
  y O == 0 -> F O == 1 -> pD F =p (pD y * F)%ps -> (y * F)%ps =p u ->
  wf r /\ eqn (N.to_nat prec) (den r) y.
Proof.
  intros W H Hp Er Hsu Y0 F0 Fd Fm.
  destruct (ok_inv (lambertw_spec s prec W H Hp) Er) as (Wr & R0 & E & E0 & H1 & H2).
  split; [exact Wr|].
  apply (lambert_unique (N.to_nat prec) (den s) (den r) E y F R0 Y0 E0 F0 H1).
  - apply peq_eqn. exact Fd.
  - exact H2.
  - rewrite Fm. symmetry. exact Hsu.
Qed.

Theorem nthroot_compose s (np : positive) prec c r (u v : ps) :
  wf s -> ~ coef s 0 == 0 -> (2 <= Zpos np)%Z -> (0 < prec < 2147483648)%N ->
  qroot (find_cf s 0) np = Ok c ->
  series_nthroot s (Zpos np) prec = Ok r ->
  eqn (N.to_nat prec) (den s) u -> v O == c -> ppow_s v (Pos.to_nat np) =p u ->
  wf r /\ eqn (N.to_nat prec) (den r) v.
Proof.
  intros W H Hn Hp Hq Er Hsu V0 Hv.
  destruct (ok_inv (nthroot_spec s np prec c W H Hn Hp Hq) Er) as (Wr & R0 & HR). split; [exact Wr|].
  assert (Hc : ~ c == 0).
  { apply (qroot_neq0 _ _ _ Hq). rewrite (find_cf_coef s 0 (proj1 W)). exact H. }
  destruct (Pos.to_nat np) as [|k] eqn:Ek; [lia|].
  apply (root_unique _ _ _ k); [rewrite R0; exact Hc|rewrite R0, V0; reflexivity|].
  rewrite HR, Hv. exact Hsu.
Qed.

(* the visitor's two steps chained: with ys, yc the formal sine and cosine (of x) and y the
   formal exponential of ys, the model's series(exp(sin(x)), x, prec) agrees with y below x^prec *)
Theorem exp_sin_x_taylor prec r (ys yc y : ps) :
  (0 < prec < 2147483648)%N ->
  series_top (EPow (EConst name_E) (EF1 TC_Sin (ESym name_x))) prec = Ok r ->
  ys O == 0 -> yc O == 1 -> pD ys =p (pD pX * yc)%ps -> pD yc =p (- (pD pX * ys))%ps ->
  y O == 1 -> pD y =p (pD ys * y)%ps ->
  eqn (N.to_nat prec) (den r) y.
Proof.
  intros Hp Er Ys0 Yc0 Yds Ydc Y0 Yd.
  assert (Ev : series_top (EPow (EConst name_E) (EF1 TC_Sin (ESym name_x))) prec
               = bind (series_sin pvar prec) (fun p => series_exp p prec)) by reflexivity.
  rewrite Ev in Er. clear Ev.
  assert (Wx : wf pvar) by apply wf_pvar.
  assert (Cx : coef pvar 0 == 0) by reflexivity.
  destruct (sin_cos_spec pvar prec Wx Cx Hp) as (rs & rc & Es & Ec & _ & _ & S0 & _).
  rewrite Es in Er. cbn [bind] in Er.
  destruct (sin_cos_compose pvar prec rs rc pX ys yc Wx Cx Hp Es Ec) as [[Ws Hs] _]; try assumption.
  { rewrite den_pvar. reflexivity. }
  apply (exp_compose rs prec r ys y Ws S0 Hp Er Hs Y0 Yd).
Qed.
