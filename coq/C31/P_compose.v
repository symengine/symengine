(* C31 obligations: the compositional Taylor theorems (one per operation of SeriesVisitor on a
   guarded fragment): when the argument polynomial agrees modulo x^prec with a formal power
   series u, the result agrees modulo x^prec with the formal solution of the function's defining
   problem with respect to u.  Last: the two visitor steps of series(exp(sin(x)), x, prec)
   chained. *)
From Coq Require Import QArith List ZArith NArith.
From SE Require Import C31.VisitorModel.
From SE Require Import C31.SeriesSpec C31.Invert C31.Compose.
Local Open Scope Q_scope.
Theorem C31_add_compose :
  forall a b prec (u v : ps),
  eqn (N.to_nat prec) (den a) u -> eqn (N.to_nat prec) (den b) v ->
    eqn (N.to_nat prec) (den (padd a b)) (u + v)%ps.
Proof. exact add_compose. Qed.
Theorem C31_mul_compose :
  forall a b prec (u v : ps),
  wf a -> wf b -> (prec < 2147483648)%N ->
    eqn (N.to_nat prec) (den a) u -> eqn (N.to_nat prec) (den b) v ->
    eqn (N.to_nat prec) (den (pmul a b prec)) (u * v)%ps.
Proof. exact mul_compose. Qed.
Theorem C31_invert_compose :
  forall s prec r (u v : ps),
  wf s -> ~ coef s 0 == 0 -> (prec < 2147483648)%N ->
    series_invert s prec = Ok r ->
    eqn (N.to_nat prec) (den s) u -> (v * u)%ps =p p1 ->
    eqn (N.to_nat prec) (den r) v.
Proof. intros; eapply invert_compose; eassumption. Qed.
Theorem C31_exp_compose :
  forall s prec r (u y : ps),
  wf s -> coef s 0 == 0 -> (0 < prec < 2147483648)%N ->
    series_exp s prec = Ok r ->
    eqn (N.to_nat prec) (den s) u -> y O == 1 -> pD y =p (pD u * y)%ps ->
    eqn (N.to_nat prec) (den r) y.
Proof. intros; eapply exp_compose; eassumption. Qed.
Theorem C31_log_compose :
  forall s prec r (u y : ps),
  wf s -> coef s 0 == 1 -> (0 < prec < 2147483648)%N ->
    series_log s prec = Ok r ->
    eqn (N.to_nat prec) (den s) u -> y O == 0 -> (pD y * u)%ps =p pD u ->
    eqn (N.to_nat prec) (den r) y.
Proof. intros; eapply log_compose; eassumption. Qed.
Theorem C31_atan_compose :
  forall s prec r (u y : ps),
  wf s -> coef s 0 == 0 -> (0 < prec < 2147483648)%N ->
    series_atan s prec = Ok r ->
    eqn (N.to_nat prec) (den s) u -> y O == 0 -> (pD y * (p1 + u * u))%ps =p pD u ->
    eqn (N.to_nat prec) (den r) y.
Proof. intros; eapply atan_compose; eassumption. Qed.
Theorem C31_atanh_compose :
  forall s prec r (u y : ps),
  wf s -> coef s 0 == 0 -> (0 < prec < 2147483648)%N ->
    series_atanh s prec = Ok r ->
    eqn (N.to_nat prec) (den s) u -> y O == 0 -> (pD y * (p1 - u * u))%ps =p pD u ->
    eqn (N.to_nat prec) (den r) y.
Proof. intros; eapply atanh_compose; eassumption. Qed.
Theorem C31_sin_cos_compose :
  forall s prec rs rc (u ys yc : ps),
  wf s -> coef s 0 == 0 -> (0 < prec < 2147483648)%N ->
    series_sin s prec = Ok rs -> series_cos s prec = Ok rc ->
    eqn (N.to_nat prec) (den s) u -> ys O == 0 -> yc O == 1 ->
    pD ys =p (pD u * yc)%ps -> pD yc =p (- (pD u * ys))%ps ->
    eqn (N.to_nat prec) (den rs) ys /\ eqn (N.to_nat prec) (den rc) yc.
Proof.
  intros s prec rs rc u ys yc W H Hp Es Ec Hsu Ys0 Yc0 Yds Ydc.
  destruct (sin_cos_compose s prec rs rc u ys yc W H Hp Es Ec Hsu Ys0 Yc0 Yds Ydc) as [[_ A] [_ B]].
  split; assumption.
Qed.
Theorem C31_sinh_cosh_compose :
  forall s prec rs rc (u ys yc : ps),
  wf s -> coef s 0 == 0 -> (0 < prec < 2147483648)%N ->
    series_sinh s prec = Ok rs -> series_cosh s prec = Ok rc ->
    eqn (N.to_nat prec) (den s) u -> ys O == 0 -> yc O == 1 ->
    pD ys =p (pD u * yc)%ps -> pD yc =p (pD u * ys)%ps ->
    eqn (N.to_nat prec) (den rs) ys /\ eqn (N.to_nat prec) (den rc) yc.
Proof.
  intros s prec rs rc u ys yc W H Hp Es Ec Hsu Ys0 Yc0 Yds Ydc.
  destruct (sinh_cosh_compose s prec rs rc u ys yc W H Hp Es Ec Hsu Ys0 Yc0 Yds Ydc) as [[_ A] [_ B]].
  split; assumption.
Qed.
Theorem C31_tan_compose :
  forall s prec r (u y : ps),
  wf s -> coef s 0 == 0 -> (0 < prec < 2147483648)%N ->
    series_tan s prec = Ok r ->
    eqn (N.to_nat prec) (den s) u -> y O == 0 -> pD y =p (pD u * (p1 + y * y))%ps ->
    eqn (N.to_nat prec) (den r) y.
Proof. intros; eapply tan_compose; eassumption. Qed.
Theorem C31_tanh_compose :
  forall s prec r (u y : ps),
  wf s -> coef s 0 == 0 -> (0 < prec < 2147483648)%N ->
    series_tanh s prec = Ok r ->
    eqn (N.to_nat prec) (den s) u -> y O == 0 -> pD y =p (pD u * (p1 - y * y))%ps ->
    eqn (N.to_nat prec) (den r) y.
Proof. intros; eapply tanh_compose; eassumption. Qed.
Theorem C31_asin_compose :
  forall s prec r (u y v : ps),
  wf s -> coef s 0 == 0 -> (1 < prec < 2147483648)%N ->
    series_asin s prec = Ok r ->
    eqn (N.to_nat prec) (den s) u ->
    y O == 0 -> v O == 1 -> (v * v * (p1 - u * u))%ps =p p1 -> pD y =p (pD u * v)%ps ->
    eqn (N.to_nat prec) (den r) y.
Proof. intros; eapply asin_compose; eassumption. Qed.
Theorem C31_asinh_compose :
  forall s prec r (u y v : ps),
  wf s -> coef s 0 == 0 -> (1 < prec < 2147483648)%N ->
    series_asinh s prec = Ok r ->
    eqn (N.to_nat prec) (den s) u ->
    y O == 0 -> v O == 1 -> (v * v * (p1 + u * u))%ps =p p1 -> pD y =p (pD u * v)%ps ->
    eqn (N.to_nat prec) (den r) y.
Proof. intros; eapply asinh_compose; eassumption. Qed.
Theorem C31_lambertw_compose :
  forall s prec r (u y F : ps),
  wf s -> coef s 0 == 0 -> (0 < prec < 2147483648)%N ->
    series_lambertw s prec = Ok r ->
    eqn (N.to_nat prec) (den s) u ->
    y O == 0 -> F O == 1 -> pD F =p (pD y * F)%ps -> (y * F)%ps =p u ->
    eqn (N.to_nat prec) (den r) y.
Proof. intros; eapply lambertw_compose; eassumption. Qed.
Theorem C31_nthroot_compose :
  forall s (np : positive) prec c r (u v : ps),
  wf s -> ~ coef s 0 == 0 -> (2 <= Zpos np)%Z -> (0 < prec < 2147483648)%N ->
    qroot (find_cf s 0) np = Ok c ->
    series_nthroot s (Zpos np) prec = Ok r ->
    eqn (N.to_nat prec) (den s) u -> v O == c -> ppow_s v (Pos.to_nat np) =p u ->
    eqn (N.to_nat prec) (den r) v.
Proof. intros; eapply nthroot_compose; eassumption. Qed.
Theorem C31_exp_sin_x_taylor :
  forall prec r (ys yc y : ps),
  (0 < prec < 2147483648)%N ->
    series_top (EPow (EConst name_E) (EF1 TC_Sin (ESym name_x))) prec = Ok r ->
    ys O == 0 -> yc O == 1 -> pD ys =p (pD pX * yc)%ps -> pD yc =p (- (pD pX * ys))%ps ->
    y O == 1 -> pD y =p (pD ys * y)%ps ->
    eqn (N.to_nat prec) (den r) y.
Proof. exact exp_sin_x_taylor. Qed.
Print Assumptions C31_add_compose.
Print Assumptions C31_mul_compose.
Print Assumptions C31_invert_compose.
Print Assumptions C31_exp_compose.
Print Assumptions C31_log_compose.
Print Assumptions C31_atan_compose.
Print Assumptions C31_atanh_compose.
Print Assumptions C31_sin_cos_compose.
Print Assumptions C31_sinh_cosh_compose.
Print Assumptions C31_tan_compose.
Print Assumptions C31_tanh_compose.
Print Assumptions C31_asin_compose.
Print Assumptions C31_asinh_compose.
Print Assumptions C31_lambertw_compose.
Print Assumptions C31_nthroot_compose.
Print Assumptions C31_exp_sin_x_taylor.
