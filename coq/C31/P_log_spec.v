(* C31 obligation: series_log (all three branches: s == 1, the fast path s == 1 + x, the
   general integral of s'/s) solves  y(0) = 0,  y' s = s'  modulo x^(prec-1), and is
   therefore the logarithm up to x^prec (C31_log_taylor, by uniqueness). *)
From Coq Require Import QArith List ZArith NArith.
From SE Require Import C31.VisitorModel.
From SE Require Import C31.SeriesSpec C31.Invert C31.LogAtan C31.Compose.
Local Open Scope Q_scope.
Theorem C31_log_spec :
  forall (s : poly) (prec : N),
    wfb s = true -> const1 s = true -> prec_ok prec = true ->
    exists r, series_log s prec = Ok r /\ wf r /\ den r O == 0 /\
              eqn (N.to_nat prec - 1) (pD (den r) * den s)%ps (pD (den s)).
Proof.
  intros s prec W H Hp.
  exact (log_spec s prec (wfb_wf s W) (const1_coef s W H) (prec_ok_lt prec Hp)).
Qed.
Theorem C31_log_taylor :
  forall (s : poly) (prec : N) (r : poly) (y : ps),
    wfb s = true -> const1 s = true -> prec_ok prec = true ->
    series_log s prec = Ok r ->
    y O == 0 -> (pD y * den s)%ps =p pD (den s) ->
    eqn (N.to_nat prec) (den r) y.
Proof.
  intros s prec r y W H Hp Er Y0 Yd.
  exact (proj2 (log_compose s prec r (den s) y (wfb_wf s W) (const1_coef s W H) (prec_ok_lt prec Hp) Er
                  (eqn_refl _ _) Y0 Yd)).
Qed.
Print Assumptions C31_log_spec.
Print Assumptions C31_log_taylor.
