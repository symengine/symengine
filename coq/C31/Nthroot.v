(* C31 -- series_nthroot for series with non-zero constant term: the Newton iteration
   R <- R + (R - R^(n+1) s/c)/n converges to (s/c)^(-1/n); the result is inverted (or not, for
   negative n) and scaled by the exact rational n-th root of the constant term c. *)
From Coq Require Import QArith Qring Qfield Setoid Morphisms Lia List ZArith NArith.
From SE Require Import C31.SeriesModel C31.PS C31.Newton C31.Sem C31.Invert C31.LogAtan.
Local Open Scope Q_scope.
Local Open Scope res_scope.

Fixpoint qpown (q : Q) (k : nat) : Q := match k with O => 1 | S j => q * qpown q j end.

Global Instance qpown_proper : Proper (Qeq ==> eq ==> Qeq) qpown.
Proof.
  intros a b Hab k k' <-. induction k; cbn [qpown]; [reflexivity|]. apply Qmult_comp; assumption.
Qed.

Lemma qpown_neq0 q k : ~ q == 0 -> ~ qpown q k == 0.
Proof.
  intros Hq; induction k; cbn [qpown]; [discriminate|].
  intro Hz. apply Qmult_integral in Hz. destruct Hz; contradiction.
Qed.
Lemma qpown_inv q k : ~ q == 0 -> qpown (/ q) k == / qpown q k.
Proof.
  intros Hq; induction k; cbn [qpown]; [reflexivity|].
  rewrite IHk. field. split; [apply qpown_neq0|]; exact Hq.
Qed.

Lemma pC_pow q k : ppow_s (pC q) k =p pC (qpown q k).
Proof. induction k; cbn [ppow_s qpown]; [reflexivity|]. rewrite IHk, pC_mulC. reflexivity. Qed.

(* numerator / denominator form, by induction with an explicit denominator power *)
Fixpoint ppown (b : positive) (k : nat) : positive :=
  match k with O => 1%positive | S j => (b * ppown b j)%positive end.
Lemma qpown_nd a b k : qpown (a # b) k == (a ^ Z.of_nat k)%Z # ppown b k.
Proof.
  induction k; cbn [qpown ppown]; [reflexivity|].
  rewrite IHk. rewrite Nat2Z.inj_succ, Z.pow_succ_r by lia. reflexivity.
Qed.
Lemma ppown_Z b k : Zpos (ppown b k) = (Zpos b ^ Z.of_nat k)%Z.
Proof.
  induction k; cbn [ppown]; [reflexivity|].
  rewrite Pos2Z.inj_mul, IHk, Nat2Z.inj_succ, Z.pow_succ_r by lia. reflexivity.
Qed.

Lemma iroot_bits_nonneg bits n v : forall r, (0 <= r)%Z -> (0 <= iroot_bits bits n v r)%Z.
Proof.
  induction bits; intros r Hr; cbn [iroot_bits]; [exact Hr|].
  destruct (Z.leb_spec (Z.pow_pos (r + 2 ^ Z.of_nat bits) n) v); apply IHbits; [|exact Hr].
  assert (0 <= 2 ^ Z.of_nat bits)%Z by (apply Z.pow_nonneg; lia). lia.
Qed.

Lemma qroot_proper c c' n : c == c' -> qroot c n = qroot c' n.
Proof. intros H. unfold qroot. rewrite (Qred_complete _ _ H). reflexivity. Qed.
Lemma qroot_one n : qroot 1 n = Ok 1.
Proof.
  unfold qroot. change (Qred 1) with 1. change (qis0 1) with false. change (Qnum 1 <? 0)%Z with false.
  cbv match. change (Qnum 1) with 1%Z. change (Z.pos (Qden 1)) with 1%Z.
  assert (E : iroot n 1 = 1%Z).
  { unfold iroot. change (Z.to_nat (Z.log2 1 + 1)) with 1%nat. cbn [iroot_bits].
    change (0 + 2 ^ Z.of_nat 0)%Z with 1%Z. rewrite Z.pow_pos_fold, Z.pow_1_l by lia.
    reflexivity. }
  rewrite E. rewrite Z.pow_pos_fold, Z.pow_1_l by lia. reflexivity.
Qed.

Lemma qroot_ok c (n : positive) r : qroot c n = Ok r -> qpown r (Pos.to_nat n) == c.
Proof.
  unfold qroot. set (c' := Qred c).
  assert (Ec : c' == c) by apply Qred_correct.
  destruct (qis0 c') eqn:E0.
  - intros H; injection H as <-. apply qis0_true in E0. rewrite <- Ec, E0.
    destruct (Pos.to_nat n) eqn:En; [lia|]. cbn [qpown]. ring.
  - destruct (Z.ltb_spec (Qnum c') 0); [discriminate|].
    set (a := iroot n (Qnum c')). set (b := iroot n (Zpos (Qden c'))).
    set (q := Qred (a # Z.to_pos b)).
    destruct ((Z.pow_pos a n =? Qnum c')%Z && (Z.pow_pos b n =? Z.pos (Qden c'))%Z) eqn:E; [|discriminate].
    intros H'; injection H' as <-.
    apply andb_prop in E. destruct E as [E1 E2].
    apply Z.eqb_eq in E1. apply Z.eqb_eq in E2.
    unfold q. rewrite Qred_correct.
    assert (Hb0 : (0 <= b)%Z) by (apply iroot_bits_nonneg; lia).
    assert (Hb : (0 < b)%Z).
    { destruct (Z.eq_dec b 0) as [Hz|]; [|lia]. rewrite Hz in E2.
      rewrite Z.pow_pos_fold, Z.pow_0_l in E2 by lia. discriminate. }
    rewrite qpown_nd. rewrite <- Ec.
    unfold Qeq. cbn [Qnum Qden]. rewrite ppown_Z.
    rewrite positive_nat_Z. rewrite Z2Pos.id by exact Hb.
    rewrite <- !Z.pow_pos_fold. rewrite E1, E2. ring.
Qed.
Lemma qroot_neq0 c (n : positive) r : qroot c n = Ok r -> ~ c == 0 -> ~ r == 0.
Proof.
  intros H Hc Hr. apply Hc. rewrite <- (qroot_ok c n r H), Hr.
  destruct (Pos.to_nat n) eqn:En; [lia|]. cbn [qpown]. ring.
Qed.

Section Loop.
Variable s : poly.
Variable np : positive.          (* |n| *)
Variable ct : Q.
Hypothesis Ws : wf s.
Hypothesis Hct : ~ ct == 0.
Hypothesis Hs0 : coef s 0 == ct.
Let k := Pos.to_nat np.
Let sn := pmul_full s (pconst (qinv ct)).

Lemma wf_sn : wf sn.
Proof using Ws. apply wf_pmul_full; [exact Ws|apply wf_pconst]. Qed.
Lemma den_sn : den sn =p pscale (/ ct) (den s).
Proof using Ws.
  unfold sn. rewrite den_pmul_full by auto with wf.
  rewrite den_pconst, pmul_comm, pC_mul. rewrite qinv_ok. reflexivity.
Qed.
Lemma sn_0 : den sn O == 1.
Proof using Ws Hct Hs0.
  rewrite (den_sn O). unfold pscale. change (den s O) with (coef s 0). rewrite Hs0.
  field. exact Hct.
Qed.

Definition root_inv (m : N) (R : poly) : Prop :=
  wf R /\ den R O == 1 /\ eqn (N.to_nat m) (ppow_s (den R) k * den sn)%ps p1.

Lemma root_step_ok : forall m st R,
  root_inv m R -> (st <= 2 * m)%N -> step_ok st ->
  exists R', (do pw <- ppow R (Zpos np + 1) st;
              do d <- pdiv_q (psub R (pmul pw sn st)) (qZ (Zpos np));
              Ok (padd R d)) = Ok R' /\ root_inv st R'.
Proof using Ws Hct Hs0.
  intros m st R (WR & R0 & HR) Hst Hok. unfold step_ok in Hok.
  replace (Zpos np + 1)%Z with (Zpos (np + 1)) by lia.
  destruct (ppow_ok R (np + 1) st WR ltac:(lia)) as (pw & Epw & Wpw & Hpw).
  rewrite Epw. cbn [bind].
  set (t := pmul pw sn st).
  assert (Wt : wf t) by (apply wf_pmul; [apply Wpw|apply wf_sn]).
  destruct (pdiv_q_ok (psub R t) (qZ (Zpos np))) as (d & Ed & Wd & Dd);
    [auto with wf|unfold qZ, Qeq; simpl; lia|].
  rewrite Ed. cbn [bind]. exists (padd R d). split; [reflexivity|].
  assert (WR' : wf (padd R d)) by auto with wf.
  assert (Eq : qZ (Zpos np) == qnat k) by (unfold qZ, qnat, k; rewrite positive_nat_Z; reflexivity).
  (* the new iterate modulo x^st *)
  assert (ER : eqn (N.to_nat st) (den (padd R d))
                   (den R * (p1 + pC (/ qnat k) * (p1 - ppow_s (den R) k * den sn)))%ps).
  { rewrite den_padd, Dd, den_psub, Eq, <- pC_mul.
    assert (Et : eqn (N.to_nat st) (den t) (den R * ppow_s (den R) k * den sn)%ps).
    { unfold t. rewrite (eqn_pmul pw sn st Wpw wf_sn) by lia.
      rewrite Hpw. replace (Pos.to_nat (np + 1)) with (S k) by (unfold k; lia).
      cbn [ppow_s]. reflexivity. }
    rewrite Et. apply peq_eqn. ring. }
  split; [exact WR'|]. split.
  - rewrite (ER O) by lia. rewrite pmul_coef0. unfold padd_s, psub_s. rewrite pmul_coef0.
    rewrite pmul_coef0. rewrite R0, (ppow_coef0 _ k R0), sn_0. change (p1 O) with 1.
    change (pC (/ qnat k) O) with (/ qnat k). ring.
  - rewrite (eqn_ppow _ _ _ k ER).
    apply (nthroot_newton_exact (den R) (den sn) k (N.to_nat m)); [unfold k; lia|lia|exact HR].
Qed.

Lemma root_loop_ok prec : (0 < prec < 2147483648)%N ->
  exists R, fold_res (fun res_p step =>
                 do pw <- ppow res_p (Zpos np + 1) step;
                 do d <- pdiv_q (psub res_p (pmul pw sn step)) (qZ (Zpos np));
                 Ok (padd res_p d)) (step_list prec) (pint 1) = Ok R /\ root_inv prec R.
Proof using Ws Hct Hs0.
  intros Hp.
  apply (newton_loop step_ok root_inv _ (pint 1) prec (step_list_ok prec Hp) root_step_ok).
  split; [apply wf_pconst|]. split; [rewrite (den_pint_1 O); reflexivity|].
  intros j Hj. assert (j = O) by lia; subst j. rewrite pmul_coef0, sn_0.
  rewrite (ppow_coef0 _ k (den_pint_1 O)). reflexivity.
Qed.
End Loop.

Lemma nthroot_unfold s n prec v :
  find_cf s 0 = v -> ldegree s = Ok 0%Z -> (n =? 0)%Z = false -> (n =? 1)%Z = false -> (n =? -1)%Z = false ->
  series_nthroot s n prec =
  (do ctroot <- qroot v (Z.to_pos (Z.abs n));
   do sn <- pdiv_q s v;
   do res_p <- fold_res (fun res_p step =>
                   do pw <- ppow res_p (Z.abs n + 1) step;
                   do d <- pdiv_q (psub res_p (pmul pw sn step)) (qZ (Z.abs n));
                   Ok (padd res_p d)) (step_list prec) (pint 1);
   if (n <? 0)%Z then pdiv_q res_p ctroot
   else do iv <- series_invert res_p prec; Ok (pmul_q iv ctroot)).
Proof.
  intros Hc Hl H0 H1 Hm1. unfold series_nthroot. rewrite H0, H1, Hm1.
  rewrite Hl. cbn [bind].
  rewrite Z.rem_0_l by (intro Hn; subst n; discriminate).
  rewrite !Z.eqb_refl. cbn [negb bind]. rewrite Hc. reflexivity.
Qed.

(* both signs of the exponent: the Newton loop yields R with R^|n| (s/v) = 1, v the constant term of s *)
Lemma nthroot_run s (n : Z) (np : positive) prec c :
  wf s -> ~ coef s 0 == 0 -> Z.abs n = Zpos np -> (2 <= Zpos np)%Z -> (0 < prec < 2147483648)%N ->
  qroot (find_cf s 0) np = Ok c ->
  exists v R, v == coef s 0 /\ qpown c (Pos.to_nat np) == v /\ wf R /\ den R O == 1 /\
    eqn (N.to_nat prec) (ppow_s (den R) (Pos.to_nat np) * pscale (/ v) (den s))%ps p1 /\
    series_nthroot s n prec =
      if (n <? 0)%Z then pdiv_q R c else do iv <- series_invert R prec; Ok (pmul_q iv c).
Proof.
  intros Ws H0 Hn H2 Hp Hq.
  destruct (wf_head s Ws H0) as (v & Ev & Hc & Hl & _).
  rewrite Hc in Hq.
  assert (Hv : ~ v == 0) by (rewrite Ev; exact H0).
  destruct (root_loop_ok s np v Ws Hv (Qeq_sym _ _ Ev) prec Hp) as (R & ER & WR & R0 & HR).
  exists v, R. split; [exact Ev|]. split; [exact (qroot_ok v np c Hq)|]. split; [exact WR|]. split; [exact R0|].
  split; [rewrite <- (den_sn s v Ws); exact HR|].
  rewrite (nthroot_unfold s n prec v Hc Hl) by (apply Z.eqb_neq; lia).
  rewrite Hn. change (Z.to_pos (Z.pos np)) with np.
  rewrite Hq. cbn [bind]. unfold pdiv_q at 1. rewrite (proj2 (qis0_false v) Hv). cbn [bind].
  rewrite ER. reflexivity.
Qed.

Theorem nthroot_spec s (np : positive) prec c :
  wf s -> ~ coef s 0 == 0 -> (2 <= Zpos np)%Z -> (0 < prec < 2147483648)%N ->
  qroot (find_cf s 0) np = Ok c ->
  exists r, series_nthroot s (Zpos np) prec = Ok r /\ wf r /\ den r O == c /\
            eqn (N.to_nat prec) (ppow_s (den r) (Pos.to_nat np)) (den s).
Proof.
  intros Ws H0 Hn Hp Hq.
  destruct (nthroot_run s (Zpos np) np prec c Ws H0 eq_refl Hn Hp Hq) as (v & R & Ev & Hq' & WR & R0 & HR & E).
  rewrite E. change (Z.pos np <? 0)%Z with false. cbv match.
  assert (Hv : ~ v == 0) by (rewrite Ev; exact H0).
  assert (R0n : ~ coef R 0 == 0) by exact (one_neq0 _ R0).
  destruct (invert_spec R prec WR R0n (proj2 Hp)) as (iv & Ei & Wi & Hi).
  rewrite Ei. cbn [bind].
  exists (pmul_q iv c). split; [reflexivity|]. split; [auto with wf|].
  split.
  { rewrite (den_pmul_q iv c Wi O). unfold pscale.
    rewrite (inverse_coef0 (N.to_nat prec) _ _ ltac:(lia) Hi R0). ring. }
  set (k := Pos.to_nat np) in *.
  rewrite (den_pmul_q iv c Wi). rewrite <- pC_mul.
  rewrite ppow_s_mul_base, pC_pow, Hq'.
  (* iv^k = s/v since R^k (s/v) = 1 and iv R = 1 *)
  assert (E1 : eqn (N.to_nat prec) (ppow_s (den iv) k) (pscale (/ v) (den s))).
  { assert (A : eqn (N.to_nat prec) (ppow_s (den iv) k * ppow_s (den R) k)%ps p1).
    { rewrite <- ppow_s_mul_base, (eqn_ppow _ _ _ k Hi). apply peq_eqn, ppow_s_1. }
    rewrite <- (pmul_1_r (ppow_s (den iv) k)), <- HR, pmul_assoc, A. apply peq_eqn. ring. }
  rewrite E1. apply peq_eqn. rewrite pC_mul. intros j. unfold pscale. field. exact Hv.
Qed.

Theorem nthroot_inv_spec s (np : positive) prec c :
  wf s -> ~ coef s 0 == 0 -> (2 <= Zpos np)%Z -> (0 < prec < 2147483648)%N ->
  qroot (find_cf s 0) np = Ok c -> ~ c == 0 ->
  exists r, series_nthroot s (Zneg np) prec = Ok r /\ wf r /\ den r O == / c /\
            eqn (N.to_nat prec) (ppow_s (den r) (Pos.to_nat np) * den s)%ps p1.
Proof.
  intros Ws H0 Hn Hp Hq Hc0.
  destruct (nthroot_run s (Zneg np) np prec c Ws H0 eq_refl Hn Hp Hq) as (v & R & Ev & Hq' & WR & R0 & HR & E).
  rewrite E. change (Z.neg np <? 0)%Z with true. cbv match.
  destruct (pdiv_q_ok R c WR Hc0) as (r & Er & Wr & Dr).
  exists r. split; [exact Er|]. split; [exact Wr|].
  split; [rewrite (Dr O); unfold pscale; rewrite R0; ring|].
  set (k := Pos.to_nat np) in *.
  rewrite Dr, <- pC_mul, ppow_s_mul_base, pC_pow.
  rewrite (qpown_inv c k Hc0), Hq', <- HR, <- pC_mul. apply peq_eqn. ring.
Qed.
