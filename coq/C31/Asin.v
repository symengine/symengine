(* C31 -- series_asin and series_asinh: integrals of s' * w where w is the inverse square root
   of 1 -+ s^2 computed by series_nthroot (and series_invert). *)
From Coq Require Import QArith Qring Qfield Setoid Morphisms Lia List ZArith NArith.
From SE Require Import C31.SeriesModel C31.PS C31.Sem C31.Invert C31.LogAtan C31.Nthroot.
Local Open Scope Q_scope.
Local Open Scope res_scope.

(* y' = T' w with w the inverse square root of t, w(0) = 1: a solution for (T, t) modulo x^(n-1) and an exact one
   for (u, t') agree modulo x^n when T = u and t = t'; the two square roots agree by root_unique *)
Lemma arc_transfer (n : nat) (T u t t' w v R y : ps) :
  (1 <= n)%nat -> eqn n T u -> eqn (n - 1) t t' -> ~ t O == 0 ->
  w O == 1 -> v O == 1 -> R O == y O ->
  eqn (n - 1) (w * w * t)%ps p1 -> (v * v * t')%ps =p p1 ->
  pD R =p (pD T * w)%ps -> pD y =p (pD u * v)%ps -> eqn n R y.
Proof.
  intros Hn Hsu Ht T0 W0 V0 H0 Hw Hv DR Dy. destruct n as [|n]; [lia|].
  cbn [Nat.sub] in Ht, Hw. rewrite Nat.sub_0_r in Ht, Hw.
  apply pD_eqn_S; [exact H0|]. rewrite DR, Dy. apply eqn_mul; [apply eqn_pD; exact Hsu|].
  apply (root_unique n w v 1); [rewrite W0; discriminate|rewrite W0, V0; reflexivity|].
  cbn [ppow_s]. rewrite !pmul_1_r. apply (cancel_unit n _ _ t T0).
  rewrite Hw, Ht. symmetry. apply peq_eqn. exact Hv.
Qed.

Lemma find_cf_one t : sorted t -> coef t 0 == 1 -> forall n, qroot (find_cf t 0) n = Ok 1.
Proof.
  intros St H n. rewrite (qroot_proper _ 1 n); [apply qroot_one|].
  rewrite find_cf_coef by exact St. exact H.
Qed.

(* the common tail of series_asin, series_asinh: integrate s' * w (full product, exact) *)
Lemma arc_int_ok s w : wf s -> wf w ->
  exists r, pintegrate (pmul_full (pdiff s) w) = Ok r /\ wf r /\ den r O == 0 /\
            pD (den r) =p (pD (den s) * den w)%ps.
Proof.
  intros Ws Ww.
  destruct (pintegrate_ok (pmul_full (pdiff s) w)) as (r & Er & Wr & Dr); [auto with wf|].
  exists r. split; [exact Er|]. split; [exact Wr|]. split; [rewrite (Dr O); reflexivity|].
  rewrite Dr, pD_pI. rewrite den_pmul_full by auto with wf. rewrite den_pdiff. reflexivity.
Qed.

Theorem asin_spec s prec :
  wf s -> coef s 0 == 0 -> (1 < prec < 2147483648)%N ->
  exists r (w : ps), series_asin s prec = Ok r /\ wf r /\ den r O == 0 /\ w O == 1 /\
    eqn (N.to_nat prec - 1) (w * w * (p1 - den s * den s))%ps p1 /\
    pD (den r) =p (pD (den s) * w)%ps.
Proof.
  intros Ws S0 Hp. unfold series_asin.
  rewrite pred32_small by lia.
  destruct (one_sub_sq_ok s (prec - 1) Ws S0) as (s2 & E2 & Wt & T0 & Dt); [lia|].
  rewrite E2. cbn [bind].
  destruct (nthroot_inv_spec _ 2 (prec - 1) 1 Wt (one_neq0 _ T0) ltac:(lia) ltac:(lia)
              (find_cf_one _ (proj1 Wt) T0 2) ltac:(discriminate))
    as (rt & Ert & Wrt & Rt0 & Hrt).
  rewrite Ert. cbn [bind].
  destruct (arc_int_ok s rt Ws Wrt) as (r & Er & Wr & R0 & Dr).
  rewrite Er. cbn [bind].
  rewrite (find_cf_0 s Ws S0). cbv match.
  exists r, (den rt). split; [reflexivity|]. split; [exact Wr|]. split; [exact R0|].
  split; [rewrite Rt0; reflexivity|]. split; [|exact Dr].
  replace (N.to_nat prec - 1)%nat with (N.to_nat (prec - 1)) by lia.
  rewrite <- Dt, <- Hrt. change (Pos.to_nat 2) with 2%nat. cbn [ppow_s]. apply peq_eqn. ring.
Qed.

Theorem asinh_spec s prec :
  wf s -> coef s 0 == 0 -> (1 < prec < 2147483648)%N ->
  exists r (w : ps), series_asinh s prec = Ok r /\ wf r /\ den r O == 0 /\ w O == 1 /\
    eqn (N.to_nat prec - 1) (w * w * (p1 + den s * den s))%ps p1 /\
    pD (den r) =p (pD (den s) * w)%ps.
Proof.
  intros Ws S0 Hp. unfold series_asinh.
  rewrite pred32_small by lia.
  destruct (one_add_sq_ok s (prec - 1) Ws S0) as (s2 & E2 & Wt & T0 & Dt); [lia|].
  rewrite E2. cbn [bind].
  destruct (nthroot_spec _ 2 (prec - 1) 1 Wt (one_neq0 _ T0) ltac:(lia) ltac:(lia)
              (find_cf_one _ (proj1 Wt) T0 2))
    as (p & Ep & Wp & P0 & Hp2).
  rewrite Ep. cbn [bind].
  assert (P0n : ~ coef p 0 == 0) by (apply one_neq0; exact P0).
  destruct (invert_spec p (prec - 1) Wp P0n ltac:(lia)) as (ip & Ei & Wi & Hi).
  rewrite Ei. cbn [bind].
  destruct (arc_int_ok s ip Ws Wi) as (r & Er & Wr & R0 & Dr).
  rewrite Er. cbn [bind].
  rewrite (find_cf_0 s Ws S0). cbv match.
  exists r, (den ip). split; [reflexivity|]. split; [exact Wr|]. split; [exact R0|].
  split; [exact (inverse_coef0 (N.to_nat (prec - 1)) _ _ ltac:(lia) Hi P0)|]. split; [|exact Dr].
  replace (N.to_nat prec - 1)%nat with (N.to_nat (prec - 1)) by lia.
  change (Pos.to_nat 2) with 2%nat in Hp2. cbn [ppow_s] in Hp2.
  rewrite <- Dt, <- Hp2.
  transitivity ((den ip * den p) * (den ip * den p))%ps; [apply peq_eqn; ring|].
  rewrite Hi. apply peq_eqn. ring.
Qed.
