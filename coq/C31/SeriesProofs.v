(* C31 -- the primitives under the boolean guards of SeriesSpec.v, and the refutation witnesses for the
   defects that the faithful model reproduces. *)
From Coq Require Import QArith Qring Qfield Setoid Morphisms Lia List ZArith NArith Bool.
From SE Require Import C31.VisitorModel.
From SE Require Import C31.SeriesSpec C31.Invert C31.LogAtan.
Local Open Scope Q_scope.

Theorem mul_spec a b prec :
  wfb a = true -> wfb b = true -> (prec < 2147483648)%N ->
  wf (pmul a b prec) /\ den (pmul a b prec) =p trunc (N.to_nat prec) (den a * den b)%ps.
Proof.
  intros Wa Wb Hp. apply wfb_wf in Wa. apply wfb_wf in Wb.
  split; [auto with wf|].
  apply den_pmul; assumption.
Qed.

Theorem pow_spec x (p : positive) prec :
  wfb x = true -> (prec < 2147483648)%N ->
  exists r, ppow x (Zpos p) prec = Ok r /\ wf r /\
            eqn (N.to_nat prec) (den r) (ppow_s (den x) (Pos.to_nat p)).
Proof. intros Wx Hp. apply ppow_ok; [apply wfb_wf; exact Wx|exact Hp]. Qed.

Theorem step_list_spec prec :
  chain_ok 1 (step_list prec) /\ last (step_list prec) 0%N = prec /\
  Forall (fun s => (s <= N.max prec 4)%N) (step_list prec).
Proof. split; [apply step_list_chain|]. split; [apply step_list_last|apply step_list_le]. Qed.

(* the precision guard of asin / asinh: the square root under the integral is taken at precision prec - 1,
   which series_nthroot needs positive *)
Definition prec_ok2 (prec : N) : bool := ((1 <? prec) && (prec <? 2147483648))%N.
Lemma prec_ok2_lt prec : prec_ok2 prec = true -> (1 < prec < 2147483648)%N.
Proof.
  unfold prec_ok2. intros H. apply andb_prop in H. destruct H as [H1 H2].
  apply N.ltb_lt in H1. apply N.ltb_lt in H2. lia.
Qed.

(* Refutation (1): series_invert does NOT respect congruence modulo x^prec when the lowest degree is
   positive: sin x is x - x^3/6 modulo x^5, yet x * (1/.) differs at x^4 (1/36 vs 7/360). *)
Definition sin5 : poly := [(1%Z, 1); (3%Z, -1 # 6)].
Definition sin7 : poly := [(1%Z, 1); (3%Z, -1 # 6); (5%Z, 1 # 120)].

Theorem invert_congruence_refuted :
  exists s t prec r r',
    wfb s = true /\ wfb t = true /\ eqn (N.to_nat prec) (den s) (den t) /\
    series_invert s prec = Ok r /\ series_invert t prec = Ok r' /\
    ~ eqn (N.to_nat prec) (den (pmul pvar r prec)) (den (pmul pvar r' prec)).
Proof.
  exists sin5, sin7, 5%N.
  eexists. eexists.
  split; [reflexivity|]. split; [reflexivity|].
  split.
  { intros k Hk. unfold den.
    do 5 (destruct k as [|k]; [vm_compute; reflexivity|]). simpl in Hk. lia. }
  split; [vm_compute; reflexivity|]. split; [vm_compute; reflexivity|].
  intros H. specialize (H 4%nat ltac:(simpl; lia)). vm_compute in H. discriminate H.
Qed.

(* Refutation (2): at the level of series(f, x, n): the expansion of x/sin(x) to order 5 is not the
   truncation of its expansion to order 7 *)
Definition x_over_sin : expr :=
  EMul (NInt 1) [(ESym name_x, ENum (NInt 1)); (EF1 TC_Sin (ESym name_x), ENum (NInt (-1)))].

Theorem series_truncation_refuted :
  exists e r5 r7, series_top e 5 = Ok r5 /\ series_top e 7 = Ok r7 /\
                  ~ coef r5 4 == coef r7 4.
Proof.
  exists x_over_sin. eexists. eexists.
  split; [vm_compute; reflexivity|]. split; [vm_compute; reflexivity|].
  vm_compute. discriminate.
Qed.
