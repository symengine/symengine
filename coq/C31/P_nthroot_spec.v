(* C31 obligation (guarded): series_nthroot on a power series with non-zero constant term
   whose constant term has an exact rational n-th root c (qroot): the result r satisfies
   r^n = s modulo x^prec (n >= 2), resp. r^|n| s = 1 (n <= -2).  The guard excludes series with
   non-zero lowest degree, where the library was wrong before fix-1 and still loses precision. *)
From Coq Require Import QArith List ZArith NArith.
From SE Require Import C31.VisitorModel.
From SE Require Import C31.SeriesSpec C31.Invert C31.Nthroot.
Local Open Scope Q_scope.
Theorem C31_nthroot_spec_guarded :
  forall (s : poly) (np : positive) (prec : N) (c : Q),
    wfb s = true -> const0 s = false -> (2 <= Zpos np)%Z -> prec_ok prec = true ->
    qroot (find_cf s 0) np = Ok c ->
    exists r, series_nthroot s (Zpos np) prec = Ok r /\ wf r /\ den r O == c /\
              eqn (N.to_nat prec) (ppow_s (den r) (Pos.to_nat np)) (den s).
Proof.
  intros s np prec c W H Hn Hp.
  exact (nthroot_spec s np prec c (wfb_wf s W) (const0_false_coef s W H) Hn (prec_ok_lt prec Hp)).
Qed.
Theorem C31_nthroot_inv_spec_guarded :
  forall (s : poly) (np : positive) (prec : N) (c : Q),
    wfb s = true -> const0 s = false -> (2 <= Zpos np)%Z -> prec_ok prec = true ->
    qroot (find_cf s 0) np = Ok c -> qis0 c = false ->
    exists r, series_nthroot s (Zneg np) prec = Ok r /\ wf r /\ den r O == / c /\
              eqn (N.to_nat prec) (ppow_s (den r) (Pos.to_nat np) * den s)%ps p1.
Proof.
  intros s np prec c W H Hn Hp Hq Hc.
  exact (nthroot_inv_spec s np prec c (wfb_wf s W) (const0_false_coef s W H) Hn (prec_ok_lt prec Hp) Hq
           (proj1 (qis0_false c) Hc)).
Qed.
Print Assumptions C31_nthroot_spec_guarded.
Print Assumptions C31_nthroot_inv_spec_guarded.
