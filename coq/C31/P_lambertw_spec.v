(* C31 obligation: series_lambertw (Newton iteration W <- W - (e W - s)/(e (W + 1)) with
   e = series_exp W, along step_list) returns W with W(0) = 0 for which there is E with
   E(0) = 1, E' = W' E modulo x^(prec-1) and W E = s modulo x^prec; such a pair is unique, so
   the coefficients below x^prec are those of the Lambert W function of s. *)
From Coq Require Import QArith List ZArith NArith.
From SE Require Import C31.VisitorModel.
From SE Require Import C31.SeriesSpec C31.Invert C31.Lambert C31.Compose.
Local Open Scope Q_scope.
Theorem C31_lambertw_spec :
  forall (s : poly) (prec : N),
    wfb s = true -> const0 s = true -> prec_ok prec = true ->
    exists r (E : ps), series_lambertw s prec = Ok r /\ wf r /\ den r O == 0 /\ E O == 1 /\
      eqn (N.to_nat prec - 1) (pD E) (pD (den r) * E)%ps /\
      eqn (N.to_nat prec) (den r * E)%ps (den s).
Proof.
  intros s prec W H Hp. destruct (guards0 s prec W H Hp) as (Ws & S0 & Hlt).
  destruct (lambertw_spec s prec Ws S0 Hlt) as (r & Er & Wr & R0 & E & HE).
  exists r, E. tauto.
Qed.
Theorem C31_lambertw_taylor :
  forall (s : poly) (prec : N) (r : poly) (y F : ps),
    wfb s = true -> const0 s = true -> prec_ok prec = true ->
    series_lambertw s prec = Ok r ->
    y O == 0 -> F O == 1 -> pD F =p (pD y * F)%ps -> (y * F)%ps =p den s ->
    eqn (N.to_nat prec) (den r) y.
Proof.
  intros s prec r y F W H Hp Er Y0 F0 Fd Fm. destruct (guards0 s prec W H Hp) as (Ws & S0 & Hlt).
  exact (proj2 (lambertw_compose s prec r (den s) y F Ws S0 Hlt Er (eqn_refl _ _) Y0 F0 Fd Fm)).
Qed.
Print Assumptions C31_lambertw_spec.
Print Assumptions C31_lambertw_taylor.
