(* C31 -- the "fast atan(x)" loop, series_atan for every argument without constant term, and
   series_tan, series_tanh: Newton iterations r <- r + (s - atan r)(1 + r^2), r <- r + (s - atanh r)(1 - r^2) along
   the precision chain solve  y(0) = 0,  y' = s' (1 +- y^2)  modulo x^(prec-1). *)
From Coq Require Import QArith Qring Qfield Setoid Morphisms Lia List ZArith NArith.
From SE Require Import C31.SeriesModel C31.PS C31.Newton C31.Sem C31.Invert C31.LogAtan C31.Exp.
Local Open Scope Q_scope.
Local Open Scope res_scope.

Lemma vsq_val : pmul_full pvar pvar = [(2%Z, 1)].
Proof. vm_compute. reflexivity. Qed.
Lemma den_vsq : den [(2%Z, 1)] =p (pX * pX)%ps.
Proof. rewrite <- vsq_val. rewrite den_pmul_full by auto with wf. rewrite den_pvar. reflexivity. Qed.
Lemma wf_vsq : wf [(2%Z, 1)].
Proof. rewrite <- vsq_val. apply wf_pmul_full; apply wf_pvar. Qed.

Lemma xpow_mul_XX i : (xpow i * (pX * pX))%ps =p xpow (S (S i)).
Proof. rewrite pmul_assoc, !xpow_mul_X. reflexivity. Qed.

(* after j steps the sum r = x - x^3/3 + ... (j terms) satisfies  r' (1 + x^2) = 1 - (-1)^j x^(2j):  each step adds
   (-1)^j x^(2j+1) / (2j+1),  whose derivative times 1 + x^2 is  (-1)^j (x^(2j) + x^(2j+2)) *)
Lemma atan_fast_ok cnt : forall (j : nat) sign monom res_p,
  wf monom -> wf res_p -> qZ sign == sgn j -> den monom =p xpow (2 * j + 1) ->
  den res_p O == 0 ->
  (pD (den res_p) * (p1 + pX * pX))%ps =p (p1 - pC (sgn j) * xpow (2 * j))%ps ->
  let r := atan_fast cnt (Z.of_nat (2 * j + 1)) sign monom [(2%Z, 1)] res_p in
  wf r /\ den r O == 0 /\
  (pD (den r) * (p1 + pX * pX))%ps =p (p1 - pC (sgn (j + cnt)) * xpow (2 * (j + cnt)))%ps.
Proof.
  induction cnt; intros j sign monom res_p Wm Wr Hs Dm R0 HR; cbn [atan_fast].
  - rewrite Nat.add_0_r. split; [exact Wr|]. split; assumption.
  - replace (Z.of_nat (2 * j + 1) + 2)%Z with (Z.of_nat (2 * S j + 1)) by lia.
    set (cf := qdiv (qZ sign) (qZ (Z.of_nat (2 * j + 1)))).
    assert (Hcf : cf * qnat (2 * j + 1) == sgn j).
    { unfold cf. rewrite qdiv_ok, Hs. change (qZ (Z.of_nat (2 * j + 1))) with (qnat (2 * j + 1)).
      field. apply qnat_neq0. lia. }
    assert (Dt : den (pmul_q monom cf) =p (pC cf * xpow (2 * j + 1))%ps).
    { rewrite (den_pmul_q _ _ Wm), Dm, pC_mul. reflexivity. }
    replace (2 * j + 1)%nat with (S (2 * j)) in Hcf, Dt by lia.
    destruct (IHcnt (S j) (sign * -1)%Z (pmul_assign monom [(2%Z, 1)]) (padd res_p (pmul_q monom cf)))
      as (W & R0' & HR').
    + rewrite pmul_assign_term by discriminate. apply wf_pmul_full; [assumption|apply wf_vsq].
    + auto with wf.
    + rewrite sgn_S, <- Hs. unfold qZ, Qeq; simpl. lia.
    + rewrite pmul_assign_term by discriminate. rewrite den_pmul_full; [|exact Wm|apply wf_vsq].
      rewrite Dm, den_vsq, xpow_mul_XX. replace (2 * S j + 1)%nat with (S (S (2 * j + 1))) by lia.
      reflexivity.
    + rewrite (den_padd _ _ O). unfold padd_s. rewrite R0, (Dt O), pmul_coef0.
      change (xpow (S (2 * j)) O) with 0. ring.
    + rewrite den_padd, pD_add, Dt, pD_xpow, Hcf.
      transitivity (pD (den res_p) * (p1 + pX * pX)
                    + pC (sgn j) * (xpow (2 * j) + xpow (2 * j) * (pX * pX)))%ps; [ring|].
      rewrite HR, xpow_mul_XX, sgn_S, <- pC_opp. replace (2 * S j)%nat with (S (S (2 * j))) by lia. ring.
    + split; [exact W|]. replace (j + S cnt)%nat with (S j + cnt)%nat by lia. split; assumption.
Qed.

(* series_atan for every argument without constant term *)
Theorem atan_spec s prec :
  wf s -> coef s 0 == 0 -> (0 < prec < 2147483648)%N ->
  exists r, series_atan s prec = Ok r /\ wf r /\ den r O == 0 /\
            eqn (N.to_nat prec - 1) (pD (den r) * (p1 + den s * den s))%ps (pD (den s)).
Proof.
  intros Ws S0 Hp. destruct (peqb s pvar) eqn:Ef.
  2:{ apply atan_spec_general; assumption. }
  unfold series_atan.
  assert (E0 : peqb s [] = false).
  { destruct s as [|[k v] r]; [discriminate Ef|reflexivity]. }
  rewrite E0, Ef. rewrite vsq_val.
  destruct (atan_fast_ok (N.to_nat (prec / 2)) 0 1 pvar []) as (W & R0 & HR).
  - apply wf_pvar.
  - apply wf_nil.
  - reflexivity.
  - rewrite den_pvar. intros [|[|n]]; reflexivity.
  - reflexivity.
  - rewrite den_nil, pD_0. assert (E : xpow (2 * 0) =p p1) by (intros [|n]; reflexivity).
    rewrite E. change (pC (sgn 0)) with p1. ring.
  - change (Z.of_nat (2 * 0 + 1)) with 1%Z in W, R0, HR.
    eexists. split; [reflexivity|]. split; [exact W|]. split; [exact R0|].
    rewrite (peqb_den _ _ Ef), den_pvar, pD_pX, HR.
    (* the remainder x^(2 (prec / 2)) lies beyond x^(prec - 2) *)
    intros k Hk. unfold psub_s. rewrite (pC_mul _ _ k). unfold pscale, xpow.
    destruct (Nat.eqb_spec k (2 * (0 + N.to_nat (prec / 2)))) as [E|]; [exfalso|ring].
    assert (A := N.div_mod prec 2 ltac:(lia)). assert (B := N.mod_lt prec 2 ltac:(lia)). lia.
Qed.

Lemma tan_step_ok s : wf s -> coef s 0 == 0 -> forall m st r,
  ode_inv (fun y => p1 + y * y)%ps 0 s m r -> (st <= 2 * m)%N -> step_ok st ->
  exists r', (do r2 <- ppow r 2 st;
              do at_ <- series_atan r st;
              Ok (padd r (pmul (psub s at_) (padd r2 (pint 1)) st))) = Ok r' /\
             ode_inv (fun y => p1 + y * y)%ps 0 s st r'.
Proof.
  intros Ws S0 m st r Hinv Hst Hok. assert (Hok' := Hok). destruct Hok'. destruct Hinv as (Wr & R0 & HR).
  destruct (ppow2_ok r st Wr ltac:(lia)) as (r2 & E2 & W2 & H2). rewrite E2. cbn [bind].
  destruct (atan_spec r st Wr R0 ltac:(lia)) as (a & Ea & Wa & A0 & HA). rewrite Ea. cbn [bind].
  eexists. split; [reflexivity|].
  apply (ode_inv_step _ _ 0 s m st r a _ second_order_1_add_sq (conj Wr (conj R0 HR)) Hst Hok S0 A0).
  - apply unit_1_add_sq. exact R0.
  - exact HA.
  - auto with wf.
  - rewrite den_padd, eqn_pmul by (auto with wf; lia).
    rewrite den_psub, den_padd, den_pint_1, H2. apply peq_eqn. ring.
Qed.

Theorem tan_spec s prec :
  wf s -> coef s 0 == 0 -> (0 < prec < 2147483648)%N ->
  exists r, series_tan s prec = Ok r /\ wf r /\ den r O == 0 /\
            eqn (N.to_nat prec - 1) (pD (den r)) (pD (den s) * (p1 + den r * den r))%ps.
Proof.
  intros Ws S0 Hp. unfold series_tan.
  rewrite (find_cf_0 s Ws S0). cbv match.
  destruct (newton_loop step_ok (ode_inv (fun y => p1 + y * y)%ps 0 s) _ [] prec (step_list_ok prec Hp)
              (tan_step_ok s Ws S0)) as (r & E & I).
  - split; [apply wf_nil|]. split; [reflexivity|apply eqn_0].
  - rewrite E. exists r. split; [reflexivity|exact I].
Qed.

Lemma tanh_step_ok s : wf s -> coef s 0 == 0 -> forall m st r,
  ode_inv (fun y => p1 - y * y)%ps 0 s m r -> (st <= 2 * m)%N -> step_ok st ->
  exists r', (do at_ <- series_atanh r st;
              do r2 <- ppow r 2 st;
              Ok (padd r (pmul (pneg (psub s at_)) (psub r2 (pint 1)) st))) = Ok r' /\
             ode_inv (fun y => p1 - y * y)%ps 0 s st r'.
Proof.
  intros Ws S0 m st r Hinv Hst Hok. assert (Hok' := Hok). destruct Hok'. destruct Hinv as (Wr & R0 & HR).
  destruct (atanh_spec r st Wr R0 ltac:(lia)) as (a & Ea & Wa & A0 & HA). rewrite Ea. cbn [bind].
  destruct (ppow2_ok r st Wr ltac:(lia)) as (r2 & E2 & W2 & H2). rewrite E2. cbn [bind].
  eexists. split; [reflexivity|].
  apply (ode_inv_step _ _ 0 s m st r a _ second_order_1_sub_sq (conj Wr (conj R0 HR)) Hst Hok S0 A0).
  - apply unit_1_sub_sq. exact R0.
  - exact HA.
  - auto with wf.
  - rewrite den_padd, eqn_pmul by (auto with wf; lia).
    rewrite den_pneg, !den_psub, den_pint_1, H2. apply peq_eqn. ring.
Qed.

Theorem tanh_spec s prec :
  wf s -> coef s 0 == 0 -> (0 < prec < 2147483648)%N ->
  exists r, series_tanh s prec = Ok r /\ wf r /\ den r O == 0 /\
            eqn (N.to_nat prec - 1) (pD (den r)) (pD (den s) * (p1 - den r * den r))%ps.
Proof.
  intros Ws S0 Hp. unfold series_tanh.
  rewrite (find_cf_0 s Ws S0). cbv match.
  destruct (newton_loop step_ok (ode_inv (fun y => p1 - y * y)%ps 0 s) _ s prec (step_list_ok prec Hp)
              (tanh_step_ok s Ws S0)) as (r & E & I).
  - split; [exact Ws|]. split; [exact S0|apply eqn_0].
  - rewrite E. exists r. split; [reflexivity|exact I].
Qed.
