(* C31 -- semantics of the model's sparse polynomials: coefficient function, dense
   power-series denotation [den], well-formedness (sorted keys, non-negative keys) and the
   meaning of every ODictWrapper / UnivariateSeries primitive. *)
From Coq Require Import QArith Qring Qfield Setoid Morphisms Lia List ZArith.
From SE Require Import C31.SeriesModel C31.PS.
Local Open Scope Q_scope.
Local Arguments Z.eqb : simpl never.
Local Arguments Qred : simpl never.

(* coefficient of x^k: the sum of the values stored under key k *)
Fixpoint coef (p : poly) (k : Z) : Q :=
  match p with
  | [] => 0
  | (k', v) :: r => (if (k' =? k)%Z then v else 0) + coef r k
  end.
Definition den (p : poly) : ps := fun n => coef p (Z.of_nat n).

Definition keysP (P : Z -> Prop) (l : poly) : Prop := Forall (fun kv => P (fst kv)) l.
Fixpoint sorted (l : poly) : Prop :=
  match l with
  | [] => True
  | (k, _) :: r => keysP (fun k' => (k < k')%Z) r /\ sorted r
  end.
Definition pser (l : poly) : Prop := keysP (fun k => (0 <= k)%Z) l.
Definition wf (l : poly) : Prop := sorted l /\ pser l.

(* case analysis on every comparison of keys in the goal *)
Ltac zb :=
  repeat (match goal with
          | |- context [(?a =? ?b)%Z] => destruct (Z.eqb_spec a b)
          | |- context [(?a <? ?b)%Z] => destruct (Z.ltb_spec a b)
          end; cbv match); subst; try lia.
(* the model's coefficient operations are those of Q followed by Qred *)
Ltac qs := unfold qadd, qsub, qmul, qdiv, qinv, qZ; rewrite ?Qred_correct; try ring.

Lemma qadd_ok a b : qadd a b == a + b.  Proof. apply Qred_correct. Qed.
Lemma qsub_ok a b : qsub a b == a - b.  Proof. apply Qred_correct. Qed.
Lemma qmul_ok a b : qmul a b == a * b.  Proof. apply Qred_correct. Qed.
Lemma qinv_ok a : qinv a == / a.        Proof. apply Qred_correct. Qed.
Lemma qdiv_ok a b : qdiv a b == a / b.  Proof. apply Qred_correct. Qed.
Lemma qis0_true q : qis0 q = true <-> q == 0.
Proof.
  unfold qis0, Qeq. simpl. rewrite Z.eqb_eq. split; intros H; lia.
Qed.
Lemma qis0_false q : qis0 q = false <-> ~ q == 0.
Proof. rewrite <- qis0_true. destruct (qis0 q); split; congruence. Qed.
Lemma qZ_inject z : qZ z == inject_Z z.
Proof. reflexivity. Qed.

Global Instance coef_proper_dummy : Proper (eq ==> eq ==> Qeq) coef.
Proof. intros a b -> c d ->. reflexivity. Qed.

Lemma keysP_impl (P P' : Z -> Prop) l : (forall k, P k -> P' k) -> keysP P l -> keysP P' l.
Proof. intros H; unfold keysP; apply Forall_impl. intros a; apply H. Qed.

Lemma keysP_lt m m' l :
  keysP (fun k' => (m < k')%Z) l -> (m' <= m)%Z -> keysP (fun k' => (m' < k')%Z) l.
Proof. intros H Hm. eapply keysP_impl; [|exact H]. intros k Hk; simpl in Hk; lia. Qed.

Lemma coef_keys_out (P : Z -> Prop) l j : keysP P l -> ~ P j -> coef l j == 0.
Proof.
  intros H Hj; induction H as [|[k v] r Hk _ IH]; simpl; [reflexivity|].
  simpl in Hk. zb; [contradiction|]. rewrite IH. ring.
Qed.
Lemma coef_below m l j : keysP (fun k' => (m < k')%Z) l -> (j <= m)%Z -> coef l j == 0.
Proof. intros H Hj. apply (coef_keys_out _ _ _ H). lia. Qed.
Lemma coef_neg l j : pser l -> (j < 0)%Z -> coef l j == 0.
Proof. intros H Hj. apply (coef_keys_out _ _ _ H). lia. Qed.

Lemma find_cf_coef s k : sorted s -> find_cf s k == coef s k.
Proof.
  induction s as [|[k' v] r IH]; simpl; intros Hs; [reflexivity|].
  destruct Hs as [Hk Hr]. zb.
  - rewrite (coef_below k r k Hk) by lia. ring.
  - rewrite IH by assumption. ring.
Qed.
Lemma find_cf_0 s : wf s -> coef s 0 == 0 -> qis0 (find_cf s 0) = true.
Proof. intros Ws H. apply qis0_true. rewrite find_cf_coef by apply Ws. exact H. Qed.

(* macc, padd_term and psub_term are one insertion into the sorted map: a new key gets [ini v]; under a key already
   there the old and the new value are combined by [comb], which may erase the entry *)
Fixpoint ins (ini : Q -> Q) (comb : Q -> Q -> option Q) (k : Z) (v : Q) (l : poly) : poly :=
  match l with
  | [] => [(k, ini v)]
  | (k', v') :: r =>
      if (k <? k')%Z then (k, ini v) :: l
      else if (k =? k')%Z then match comb v' v with Some s => (k', s) :: r | None => r end
      else (k', v') :: ins ini comb k v r
  end.
Definition nonzero (s : Q) : option Q := if qis0 s then None else Some s.

Lemma macc_ins k v l : macc k v l = ins (qadd 0) (fun v' v => Some (qadd v' v)) k v l.
Proof. induction l as [|[k' v'] r IH]; cbn [macc ins]; [|rewrite IH]; reflexivity. Qed.
Lemma padd_term_ins k v l : padd_term k v l = ins (fun v => v) (fun v' v => nonzero (qadd v' v)) k v l.
Proof.
  induction l as [|[k' v'] r IH]; cbn [padd_term ins]; [reflexivity|].
  rewrite IH. unfold nonzero. destruct (qis0 (qadd v' v)); reflexivity.
Qed.
Lemma psub_term_ins k v l :
  psub_term k v l = ins (fun v => Qred (- v)) (fun v' v => nonzero (qsub v' v)) k v l.
Proof.
  induction l as [|[k' v'] r IH]; cbn [psub_term ins]; [reflexivity|].
  rewrite IH. unfold nonzero. destruct (qis0 (qsub v' v)); reflexivity.
Qed.

Lemma nonzero_spec s (x : Q) : s == x -> match nonzero s with Some s' => s' == x | None => x == 0 end.
Proof.
  intros H. unfold nonzero. destruct (qis0 s) eqn:E; [|exact H]. rewrite <- H. apply qis0_true. exact E.
Qed.

(* the insertion adds c under key k, if [ini] and [comb] do *)
Lemma coef_ins ini comb (c : Q) k v l j :
  ini v == c -> (forall v', match comb v' v with Some s => s == v' + c | None => v' + c == 0 end) ->
  coef (ins ini comb k v l) j == coef l j + (if (k =? j)%Z then c else 0).
Proof.
  intros Hi Hc. induction l as [|[k' v'] r IH]; cbn [ins coef].
  - destruct (k =? j)%Z; rewrite ?Hi; ring.
  - destruct (Z.ltb_spec k k'); [|destruct (Z.eqb_spec k k') as [<-|]]; cbn [coef].
    + destruct (k =? j)%Z; rewrite ?Hi; ring.
    + specialize (Hc v'). destruct (comb v' v) as [s|]; cbn [coef]; destruct (k =? j)%Z; try ring.
      * rewrite Hc. ring.
      * setoid_replace c with (- v' + (v' + c)) by ring. rewrite Hc. ring.
    + rewrite IH. ring.
Qed.
Lemma keysP_ins P ini comb k v l : keysP P l -> P k -> keysP P (ins ini comb k v l).
Proof.
  intros H Hk; induction H as [|[k' v'] r Hk' Hr IH]; cbn [ins].
  - constructor; [assumption|constructor].
  - destruct (k <? k')%Z; [|destruct (k =? k')%Z; [destruct (comb v' v)|]].
    + constructor; [assumption|]. constructor; assumption.
    + constructor; assumption.
    + assumption.
    + constructor; assumption.
Qed.
Lemma sorted_ins ini comb k v l : sorted l -> sorted (ins ini comb k v l).
Proof.
  induction l as [|[k' v'] r IH]; cbn [ins]; intros Hs.
  - split; [constructor|exact I].
  - destruct Hs as [Hk Hr].
    destruct (Z.ltb_spec k k'); [|destruct (Z.eqb_spec k k'); [destruct (comb v' v)|]]; cbn [sorted].
    + split; [|split; assumption]. constructor; [simpl; assumption|].
      apply (keysP_lt k'); [assumption|lia].
    + split; assumption.
    + assumption.
    + split; [|apply IH; assumption]. apply keysP_ins; [assumption|lia].
Qed.
Lemma wf_ins ini comb k v l : (0 <= k)%Z -> wf l -> wf (ins ini comb k v l).
Proof. intros Hk [S P]. split; [apply sorted_ins|apply keysP_ins]; assumption. Qed.

Lemma coef_macc k v l j : coef (macc k v l) j == coef l j + (if (k =? j)%Z then v else 0).
Proof. rewrite macc_ins. apply coef_ins; [rewrite qadd_ok; ring|intros v'; apply qadd_ok]. Qed.

(* a loop over the entries of a series polynomial whose body keeps well-formedness keeps it *)
Lemma wf_fold (f : poly -> Z * Q -> poly) b : pser b ->
  (forall acc kv, (0 <= fst kv)%Z -> wf acc -> wf (f acc kv)) ->
  forall acc, wf acc -> wf (fold_left f b acc).
Proof.
  intros Pb Hf; induction Pb as [|kv r Hk _ IH]; intros acc Wa; cbn [fold_left]; [exact Wa|].
  apply IH, Hf; assumption.
Qed.

Lemma coef_pnorm l j : coef (pnorm l) j == coef l j.
Proof.
  induction l as [|[k v] r IH]; simpl; [reflexivity|].
  destruct (qis0 v) eqn:E; simpl.
  - apply qis0_true in E. rewrite IH. zb; rewrite ?E; ring.
  - rewrite IH. reflexivity.
Qed.
Lemma keysP_pnorm P l : keysP P l -> keysP P (pnorm l).
Proof.
  intros H; induction H as [|[k v] r Hk _ IH]; simpl; [constructor|].
  destruct (qis0 v); simpl; [assumption|constructor; assumption].
Qed.
Lemma sorted_pnorm l : sorted l -> sorted (pnorm l).
Proof.
  induction l as [|[k v] r IH]; simpl; intros Hs; [exact I|].
  destruct Hs as [Hk Hr]. destruct (qis0 v); simpl; [apply IH; assumption|].
  split; [apply keysP_pnorm; assumption|apply IH; assumption].
Qed.

Lemma wf_pnorm l : wf l -> wf (pnorm l).
Proof. intros [S P]. split; [apply sorted_pnorm|apply keysP_pnorm]; assumption. Qed.

Lemma coef_pconst q j : coef (pconst q) j == if (j =? 0)%Z then q else 0.
Proof.
  unfold pconst. destruct (qis0 q) eqn:E; simpl.
  - apply qis0_true in E. zb; rewrite ?E; reflexivity.
  - destruct (Z.eqb_spec 0 j), (Z.eqb_spec j 0); try lia; qs.
Qed.
Lemma wf_pconst q : wf (pconst q).
Proof.
  unfold pconst, wf, pser, keysP. destruct (qis0 q); simpl.
  - repeat split; constructor.
  - repeat split; repeat constructor. simpl; lia.
Qed.
Lemma den_pconst q : den (pconst q) =p pC q.
Proof.
  intros [|n]; unfold den; rewrite coef_pconst; unfold pC.
  - reflexivity.
  - destruct (Z.eqb_spec (Z.of_nat (S n)) 0); [lia|reflexivity].
Qed.
Lemma den_pint z : den (pint z) =p pC (inject_Z z).
Proof. unfold pint. rewrite den_pconst. reflexivity. Qed.
Lemma den_pint_1 : den (pint 1) =p p1.
Proof. rewrite den_pint. reflexivity. Qed.
Lemma wf_pint z : wf (pint z).
Proof. apply wf_pconst. Qed.
Lemma den_nil : den [] =p p0.
Proof. intros n; reflexivity. Qed.
Lemma wf_nil : wf [].
Proof. repeat split; constructor. Qed.
Lemma wf_pvar : wf pvar.
Proof. unfold pvar, wf, pser, keysP; simpl. repeat split; repeat constructor. simpl; lia. Qed.
Lemma den_pvar : den pvar =p pX.
Proof.
  intros [|[|n]]; unfold den, pvar, pX; cbn [coef]; zb; ring.
Qed.

Lemma coef_padd_term k v l j :
  coef (padd_term k v l) j == coef l j + (if (k =? j)%Z then v else 0).
Proof.
  rewrite padd_term_ins. apply coef_ins; [reflexivity|]. intros v'. apply nonzero_spec, qadd_ok.
Qed.
Lemma coef_padd a b j : coef (padd a b) j == coef a j + coef b j.
Proof.
  unfold padd. revert a; induction b as [|[k v] r IH]; intros a; simpl; [ring|].
  rewrite IH, coef_padd_term. ring.
Qed.
Lemma wf_padd a b : wf a -> wf b -> wf (padd a b).
Proof.
  intros Wa [_ Pb]. apply (wf_fold _ b Pb); [|exact Wa].
  intros acc kv Hk W. rewrite padd_term_ins. apply wf_ins; assumption.
Qed.
Lemma den_padd a b : den (padd a b) =p (den a + den b)%ps.
Proof. intros n; unfold den, padd_s; apply coef_padd. Qed.

Lemma coef_psub_term k v l j :
  coef (psub_term k v l) j == coef l j - (if (k =? j)%Z then v else 0).
Proof.
  rewrite psub_term_ins, (coef_ins _ _ (- v)).
  - destruct (k =? j)%Z; ring.
  - apply Qred_correct.
  - intros v'. apply (nonzero_spec _ (v' - v)), qsub_ok.
Qed.
Lemma coef_psub a b j : coef (psub a b) j == coef a j - coef b j.
Proof.
  unfold psub. revert a; induction b as [|[k v] r IH]; intros a; simpl; [ring|].
  rewrite IH, coef_psub_term. ring.
Qed.
Lemma wf_psub a b : wf a -> wf b -> wf (psub a b).
Proof.
  intros Wa [_ Pb]. apply (wf_fold _ b Pb); [|exact Wa].
  intros acc kv Hk W. rewrite psub_term_ins. apply wf_ins; assumption.
Qed.
Lemma den_psub a b : den (psub a b) =p (den a - den b)%ps.
Proof. intros n; unfold den, psub_s; apply coef_psub. Qed.

Lemma coef_pneg a j : coef (pneg a) j == - coef a j.
Proof.
  induction a as [|[k v] r IH]; simpl; [ring|]. rewrite IH. unfold qmul. zb; qs.
Qed.
Lemma keysP_pneg P a : keysP P a -> keysP P (pneg a).
Proof. intros H; induction H as [|[k v] r Hk _ IH]; simpl; constructor; assumption. Qed.
Lemma sorted_pneg a : sorted a -> sorted (pneg a).
Proof.
  induction a as [|[k v] r IH]; simpl; intros Hs; [exact I|]. destruct Hs as [Hk Hr].
  split; [apply (keysP_pneg _ _ Hk)|apply IH; assumption].
Qed.
Lemma wf_pneg a : wf a -> wf (pneg a).
Proof. intros [Sa Pa]; split; [apply sorted_pneg|apply keysP_pneg]; assumption. Qed.
Lemma den_pneg a : den (pneg a) =p (- den a)%ps.
Proof. intros n; unfold den, popp; apply coef_pneg. Qed.

(* sum over the entries (k1, v1) of a of v1 * b_(j - k1) *)
Fixpoint sconv (a b : poly) (j : Z) : Q :=
  match a with
  | [] => 0
  | (k1, v1) :: r => v1 * coef b (j - k1) + sconv r b j
  end.

Lemma coef_tmul_inner k1 v1 b pz acc j : sorted b ->
  coef (tmul_inner k1 v1 b pz acc) j
  == coef acc j + (if (j <? pz)%Z then v1 * coef b (j - k1) else 0).
Proof.
  revert acc; induction b as [|[k2 v2] r IH]; intros acc Hs; simpl.
  - zb; ring.
  - destruct Hs as [Hk Hr]. destruct (Z.ltb_spec (k1 + k2) pz).
    + rewrite IH by assumption. rewrite coef_macc. unfold qmul. zb; qs.
    + zb; try (rewrite (coef_below k2 r (j - k1) Hk) by lia); ring.
Qed.

Lemma coef_tmul_fold a b pz acc j : sorted b ->
  coef (fold_left (fun acc kv1 => tmul_inner (fst kv1) (snd kv1) b pz acc) a acc) j
  == coef acc j + (if (j <? pz)%Z then sconv a b j else 0).
Proof.
  intros Hs; revert acc; induction a as [|[k1 v1] r IH]; intros acc; simpl.
  - zb; ring.
  - rewrite IH, coef_tmul_inner by assumption. zb; ring.
Qed.

Lemma coef_pmul a b prec j : sorted b ->
  coef (pmul a b prec) j == if (j <? to_int prec)%Z then sconv a b j else 0.
Proof.
  intros Hs. unfold pmul. rewrite coef_pnorm, coef_tmul_fold by assumption. simpl. ring.
Qed.

Lemma wf_tmul_inner k1 v1 b pz acc :
  (0 <= k1)%Z -> pser b -> wf acc -> wf (tmul_inner k1 v1 b pz acc).
Proof.
  intros Hk Pb; revert acc; induction Pb as [|[k2 v2] r Hk2 _ IH]; intros acc Wa; cbn [tmul_inner];
    [exact Wa|].
  destruct (k1 + k2 <? pz)%Z; [|exact Wa].
  apply IH. rewrite macc_ins. apply wf_ins; [simpl in Hk2; lia|exact Wa].
Qed.
Lemma wf_pmul a b prec : wf a -> wf b -> wf (pmul a b prec).
Proof.
  intros [_ Pa] [_ Pb]. apply wf_pnorm, (wf_fold _ a Pa); [|apply wf_nil].
  intros acc kv Hk W. apply wf_tmul_inner; assumption.
Qed.

(* sparse convolution = Cauchy product on power series *)
Lemma sconv_dense a b n : pser a -> pser b ->
  sconv a b (Z.of_nat n) == (den a * den b)%ps n.
Proof.
  intros Pa Pb. induction Pa as [|[k v] r Hk Pr IH]; simpl.
  - unfold pmul_s. symmetry. apply sumn_0. intros i _. unfold den; simpl. ring.
  - rewrite IH. unfold pmul_s, den. simpl coef.
    transitivity (sumn (fun i => (if (k =? Z.of_nat i)%Z then v else 0) * coef b (Z.of_nat (n - i))) (S n)
                  + sumn (fun i => coef r (Z.of_nat i) * coef b (Z.of_nat (n - i))) (S n)).
    2:{ rewrite <- sumn_add. apply sumn_ext; intros; ring. }
    apply Qplus_comp; [|reflexivity].
    simpl in Hk.
    destruct (Z.le_gt_cases k (Z.of_nat n)) as [Hle|Hgt].
    + rewrite (sumn_single _ _ (Z.to_nat k)); [| lia |].
      * rewrite Z2Nat.id by lia. rewrite Z.eqb_refl.
        replace (Z.of_nat (n - Z.to_nat k)) with (Z.of_nat n - k)%Z by lia. reflexivity.
      * intros i Hi Hne. destruct (Z.eqb_spec k (Z.of_nat i)); [lia|ring].
    + rewrite sumn_0.
      * rewrite (coef_neg b _ Pb) by lia. ring.
      * intros i Hi. destruct (Z.eqb_spec k (Z.of_nat i)); [lia|ring].
Qed.

Lemma to_int_small prec : (prec < 2147483648)%N -> to_int prec = Z.of_N prec.
Proof.
  intros H. unfold to_int, W32. rewrite N.mod_small by lia.
  destruct (Z.ltb_spec (Z.of_N prec) 2147483648); lia.
Qed.

Lemma den_pmul a b prec : wf a -> wf b -> (prec < 2147483648)%N ->
  den (pmul a b prec) =p trunc (N.to_nat prec) (den a * den b)%ps.
Proof.
  intros [_ Pa] [Sb Pb] Hp n. unfold den at 1, trunc. rewrite coef_pmul by assumption.
  rewrite to_int_small by assumption.
  destruct (Z.ltb_spec (Z.of_nat n) (Z.of_N prec)); destruct (Nat.ltb_spec n (N.to_nat prec)); try lia.
  - apply sconv_dense; assumption.
  - reflexivity.
Qed.
Lemma eqn_pmul a b prec : wf a -> wf b -> (prec < 2147483648)%N ->
  eqn (N.to_nat prec) (den (pmul a b prec)) (den a * den b)%ps.
Proof. intros Wa Wb Hp. rewrite (den_pmul a b prec Wa Wb Hp). apply eqn_trunc. Qed.

Lemma coef_full_inner k1 v1 b acc j :
  coef (fold_left (fun acc kv2 => macc (k1 + fst kv2) (qmul v1 (snd kv2)) acc) b acc) j
  == coef acc j + v1 * coef b (j - k1).
Proof.
  revert acc; induction b as [|[k2 v2] r IH]; intros acc; simpl; [ring|].
  rewrite IH, coef_macc. unfold qmul. zb; qs.
Qed.
Lemma coef_full_fold a b acc j :
  coef (fold_left (fun acc kv1 =>
          fold_left (fun acc kv2 => macc (fst kv1 + fst kv2) (qmul (snd kv1) (snd kv2)) acc) b acc) a acc) j
  == coef acc j + sconv a b j.
Proof.
  revert acc; induction a as [|[k1 v1] r IH]; intros acc; simpl; [ring|].
  rewrite IH, coef_full_inner. ring.
Qed.
Lemma sconv_nil_r a j : sconv a [] j == 0.
Proof. induction a as [|[k v] r IH]; simpl; [reflexivity|]. rewrite IH; ring. Qed.
Lemma coef_pmul_full a b j : coef (pmul_full a b) j == sconv a b j.
Proof.
  unfold pmul_full. destruct a as [|x a']; [reflexivity|].
  destruct b as [|y b']; [rewrite sconv_nil_r; reflexivity|].
  rewrite coef_pnorm, coef_full_fold. simpl. ring.
Qed.
Lemma wf_pmul_full a b : wf a -> wf b -> wf (pmul_full a b).
Proof.
  intros Wa Wb. unfold pmul_full. destruct a as [|x a']; [assumption|].
  destruct b as [|y b']; [assumption|].
  apply wf_pnorm, (wf_fold _ _ (proj2 Wa)); [|apply wf_nil].
  intros acc kv1 Hk1 W. apply (wf_fold _ _ (proj2 Wb)); [|exact W].
  intros acc' kv2 Hk2 W'. rewrite macc_ins. apply wf_ins; [lia|exact W'].
Qed.
Lemma den_pmul_full a b : wf a -> wf b -> den (pmul_full a b) =p (den a * den b)%ps.
Proof. intros [_ Pa] [_ Pb] n. unfold den at 1. rewrite coef_pmul_full. apply sconv_dense; assumption. Qed.

(* *= by a single term that is not a constant is the full product *)
Lemma pmul_assign_term a k c : k <> 0%Z -> pmul_assign a [(k, c)] = pmul_full a [(k, c)].
Proof.
  intros Hk. destruct a as [|x a]; [reflexivity|]. cbn [pmul_assign].
  destruct (Z.eqb_spec k 0); [contradiction|reflexivity].
Qed.
Lemma pmul_assign_pvar a : pmul_assign a pvar = pmul_full a pvar.
Proof. apply pmul_assign_term. discriminate. Qed.
Lemma den_pmul_q a q : wf a -> den (pmul_q a q) =p pscale q (den a).
Proof.
  intros Wa. unfold pmul_q. rewrite den_pmul_full; [|assumption|apply wf_pconst].
  rewrite den_pconst. rewrite pmul_comm. apply pC_mul.
Qed.
Lemma wf_pmul_q a q : wf a -> wf (pmul_q a q).
Proof. intros; apply wf_pmul_full; [assumption|apply wf_pconst]. Qed.
Lemma pdiv_q_ok a q : wf a -> ~ q == 0 ->
  exists r, pdiv_q a q = Ok r /\ wf r /\ den r =p pscale (/ q) (den a).
Proof.
  intros W Hq. unfold pdiv_q. rewrite (proj2 (qis0_false q) Hq). eexists. split; [reflexivity|].
  split; [apply wf_pmul_q, W|]. rewrite (den_pmul_q a (qinv q) W), qinv_ok. reflexivity.
Qed.

Lemma coef_pdiff s j : coef (pdiff s) j == inject_Z (j + 1) * coef s (j + 1).
Proof.
  unfold pdiff. rewrite coef_pnorm.
  induction s as [|[k v] r IH]; simpl; [ring|].
  destruct (Z.eqb_spec k 0); simpl.
  - subst. rewrite IH. destruct (Z.eqb_spec 0 (j + 1)) as [E|E]; [|ring].
    rewrite <- E. change (inject_Z 0) with 0. ring.
  - rewrite IH. destruct (Z.eqb_spec (k - 1) j) as [E|E], (Z.eqb_spec k (j + 1)) as [E'|E']; try lia.
    + subst j. replace (k - 1 + 1)%Z with k by lia. unfold qmul, qZ, inject_Z.
      rewrite Qred_correct. ring.
    + ring.
Qed.
Lemma den_pdiff s : den (pdiff s) =p pD (den s).
Proof.
  intros n; unfold den, pD, qnat. rewrite coef_pdiff.
  replace (Z.of_nat n + 1)%Z with (Z.of_nat (S n)) by lia. reflexivity.
Qed.
(* the keys of pdiff: every key but 0, moved down by one *)
Lemma keysP_pdiff (P P' : Z -> Prop) s : (forall k, P k -> k <> 0%Z -> P' (k - 1)%Z) -> keysP P s ->
  keysP P' (fold_right (fun kv acc =>
              if (fst kv =? 0)%Z then acc else (fst kv - 1, qmul (snd kv) (qZ (fst kv))) :: acc)%Z [] s).
Proof.
  intros HP H; induction H as [|[k v] r Hk _ IH]; cbn [fold_right fst snd]; [constructor|].
  destruct (Z.eqb_spec k 0); [exact IH|]. constructor; [apply HP; assumption|exact IH].
Qed.
Lemma wf_pdiff s : wf s -> wf (pdiff s).
Proof.
  intros [Ss Ps]. apply wf_pnorm. split; [clear Ps|apply (keysP_pdiff _ _ s) with (2 := Ps); intros; lia].
  induction s as [|[k v] r IH]; cbn [fold_right fst snd]; [exact I|].
  destruct Ss as [Hk Hr]. destruct (k =? 0)%Z; [apply IH, Hr|].
  split; [|apply IH, Hr]. apply (keysP_pdiff _ _ r) with (2 := Hk). intros; lia.
Qed.

(* well-formedness of a composed polynomial: [auto with wf] *)
Create HintDb wf.
#[export] Hint Resolve wf_nil wf_pvar wf_pconst wf_pint wf_padd wf_psub wf_pneg wf_pmul wf_pmul_full wf_pmul_q
  wf_pdiff : wf.

Lemma pint_raw_ok s : pser s -> exists l, pint_raw s = Ok l /\ pser l /\
  (sorted s -> sorted l) /\
  (forall m, keysP (fun k' => (m < k')%Z) s -> keysP (fun k' => (m + 1 < k')%Z) l) /\
  forall j, coef l j == if (j =? 0)%Z then 0 else coef s (j - 1) / inject_Z j.
Proof.
  intros Ps; induction Ps as [|[k v] r Hk _ IH]; simpl.
  - exists []. split; [reflexivity|]. split; [constructor|]. split; [intros; exact I|].
    split; [intros; constructor|]. intros j; simpl. zb; [reflexivity|]. unfold Qdiv; ring.
  - destruct IH as (l & E & Pl & Sl & Kl & Cl). simpl in Hk.
    destruct (Z.eqb_spec k (-1)); [lia|]. rewrite E. simpl.
    exists ((k + 1, qdiv v (qZ (k + 1))) :: l)%Z.
    split; [reflexivity|]. split; [constructor; [simpl; lia|assumption]|].
    split; [intros [Hk' Hr]; split; [apply Kl; assumption|apply Sl; assumption]|].
    split.
    + intros m Hm. inversion Hm; subst. constructor; [simpl in *; lia|apply Kl; assumption].
    + intros j. simpl. rewrite Cl. unfold qdiv, qZ.
      destruct (Z.eqb_spec (k + 1) j), (Z.eqb_spec j 0), (Z.eqb_spec k (j - 1)); try lia; subst;
        unfold Qdiv, inject_Z; rewrite ?Qred_correct; unfold Qdiv; ring.
Qed.
Lemma pintegrate_ok s : wf s -> exists l, pintegrate s = Ok l /\ wf l /\ den l =p pI (den s).
Proof.
  intros [Ss Ps]. destruct (pint_raw_ok s Ps) as (l & E & Pl & Sl & _ & Cl).
  exists (pnorm l). unfold pintegrate. rewrite E. simpl. repeat split.
  - apply sorted_pnorm, Sl, Ss.
  - apply keysP_pnorm; assumption.
  - intros [|n]; unfold den, pI; rewrite coef_pnorm, Cl.
    + reflexivity.
    + destruct (Z.eqb_spec (Z.of_nat (S n)) 0); [lia|].
      replace (Z.of_nat (S n) - 1)%Z with (Z.of_nat n) by lia. reflexivity.
Qed.

Lemma peqb_coef a b : peqb a b = true -> forall j, coef a j == coef b j.
Proof.
  revert b; induction a as [|[k v] r IH]; intros [|[k' v'] r'] H j; simpl in *; try discriminate;
    [reflexivity|].
  apply andb_prop in H; destruct H as [H H3]. apply andb_prop in H; destruct H as [H1 H2].
  apply Z.eqb_eq in H1; subst. apply Qeq_bool_iff in H2. rewrite (IH _ H3 j). zb; rewrite ?H2; ring.
Qed.
Lemma peqb_den a b : peqb a b = true -> den a =p den b.
Proof. intros H n; apply peqb_coef; assumption. Qed.

(* a well-formed series with non-zero constant term starts with that term: what the model's probes of the head see *)
Lemma wf_head s : wf s -> ~ coef s 0 == 0 ->
  exists v, v == coef s 0 /\ find_cf s 0 = v /\ ldegree s = Ok 0%Z /\ peqb s [] = false.
Proof.
  intros [Ss Ps] H. destruct s as [|[k v] r]; [exfalso; apply H; reflexivity|].
  destruct Ss as [Hk Hr]. inversion Ps as [|? ? Hk0 Pr]; subst. simpl in Hk0.
  destruct (Z.eq_dec k 0) as [->|Hne].
  - exists v. split; [|split; [reflexivity|split; reflexivity]].
    simpl. rewrite (coef_below 0 r 0 Hk) by lia. ring.
  - exfalso; apply H. simpl. destruct (Z.eqb_spec k 0); [contradiction|].
    rewrite (coef_below k r 0 Hk) by lia. ring.
Qed.
