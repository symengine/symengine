(* C31 -- soundness of the SeriesVisitor model on a guarded fragment of expressions.

   [DenF fuel e y] says that the formal power series y is a Taylor series of the expression e:
   numbers, the variable x, sums and products (Add / Mul dictionaries), integer powers >= 2,
   1/e for e(0) <> 0, roots e^(1/d) (d >= 2, e(0) with an exact rational d-th root), exp(e), and
   sin cos tan atan sinh cosh tanh atanh asin asinh lambertw (argument without constant term), log
   (argument with constant term 1); each function is specified by its defining initial value problem
   over formal power series.

   Theorem [visit_sound]: whenever the model's visitor returns Ok r on such an expression, r is a
   well-formed series polynomial whose coefficients below x^prec are those of y. *)
From Coq Require Import QArith Qring Qfield Setoid Morphisms Lia List ZArith NArith Bool.
From SE Require Import C31.VisitorModel.
From SE Require Import C31.SeriesSpec C31.Invert C31.LogAtan C31.Exp C31.Nthroot C31.Hyp C31.SinCos
  C31.Compose.
Local Open Scope Q_scope.
Local Open Scope res_scope.

Definition num_q (n : number) : option Q :=
  match n with NInt z => Some (inject_Z z) | NRat a d => Some (a # d) | _ => None end.

(* the defining problem of each function, for the argument series u *)
Definition fspec (code : N) (u y : ps) : Prop :=
  if (code =? TC_Sin)%N then
    u O == 0 /\ exists yc, y O == 0 /\ yc O == 1 /\ pD y =p (pD u * yc)%ps /\ pD yc =p (- (pD u * y))%ps
  else if (code =? TC_Cos)%N then
    u O == 0 /\ exists ys, ys O == 0 /\ y O == 1 /\ pD ys =p (pD u * y)%ps /\ pD y =p (- (pD u * ys))%ps
  else if (code =? TC_Sinh)%N then
    u O == 0 /\ exists yc, y O == 0 /\ yc O == 1 /\ pD y =p (pD u * yc)%ps /\ pD yc =p (pD u * y)%ps
  else if (code =? TC_Cosh)%N then
    u O == 0 /\ exists ys, ys O == 0 /\ y O == 1 /\ pD ys =p (pD u * y)%ps /\ pD y =p (pD u * ys)%ps
  else if (code =? TC_Tan)%N then
    u O == 0 /\ y O == 0 /\ pD y =p (pD u * (p1 + y * y))%ps
  else if (code =? TC_Tanh)%N then
    u O == 0 /\ y O == 0 /\ pD y =p (pD u * (p1 - y * y))%ps
  else if (code =? TC_ATan)%N then
    u O == 0 /\ y O == 0 /\ (pD y * (p1 + u * u))%ps =p pD u
  else if (code =? TC_ATanh)%N then
    u O == 0 /\ y O == 0 /\ (pD y * (p1 - u * u))%ps =p pD u
  else if (code =? TC_ASin)%N then
    u O == 0 /\ exists v, y O == 0 /\ v O == 1 /\ (v * v * (p1 - u * u))%ps =p p1 /\ pD y =p (pD u * v)%ps
  else if (code =? TC_ASinh)%N then
    u O == 0 /\ exists v, y O == 0 /\ v O == 1 /\ (v * v * (p1 + u * u))%ps =p p1 /\ pD y =p (pD u * v)%ps
  else if (code =? TC_LambertW)%N then
    u O == 0 /\ exists F, y O == 0 /\ F O == 1 /\ pD F =p (pD y * F)%ps /\ (y * F)%ps =p u
  else if (code =? TC_Log)%N then
    u O == 1 /\ y O == 0 /\ (pD y * u)%ps =p pD u
  else False.

Fixpoint den_add (D : expr -> ps -> Prop) (d : list (expr * number)) (acc y : ps) : Prop :=
  match d with
  | [] => y =p acc
  | (a, k) :: r => exists u q, D a u /\ num_q k = Some q /\ den_add D r (acc + u * pC q)%ps y
  end.
Fixpoint den_mul (D : expr -> ps -> Prop) (d : list (expr * expr)) (acc y : ps) : Prop :=
  match d with
  | [] => y =p acc
  | (k, v) :: r => exists u, D (mkpow k v) u /\ den_mul D r (acc * u)%ps y
  end.

Fixpoint DenF (fuel : nat) (e : expr) (y : ps) : Prop :=
  match fuel with
  | O => False
  | S f =>
    match e with
    | ENum n => exists q, num_q n = Some q /\ y =p pC q
    | ESym nm => bytes_eqb nm name_x = true /\ y =p pX
    | EAdd coef d => exists c, num_q coef = Some c /\ den_add (DenF f) d (pC c) y
    | EMul coef d => exists c, num_q coef = Some c /\ den_mul (DenF f) d (pC c) y
    | EPow b ex =>
        match ex with
        | ENum (NInt sh) =>
            if (2 <=? sh)%Z && (sh <? INT_LIM)%Z then exists u, DenF f b u /\ y =p ppow_s u (Z.to_nat sh)
            else if (sh =? -1)%Z then exists u, DenF f b u /\ ~ u O == 0 /\ (y * u)%ps =p p1
            else False
        | ENum (NRat num dn) =>
            if (num =? 1)%Z && (2 <=? Zpos dn)%Z && (Zpos dn <? INT_LIM)%Z
            then exists u c, DenF f b u /\ ~ u O == 0 /\ qroot (u O) dn = Ok c /\
                             y O == c /\ ppow_s y (Pos.to_nat dn) =p u
            else False
        | ENum _ => False
        | _ => if is_E b then exists u, DenF f ex u /\ u O == 0 /\ y O == 1 /\ pD y =p (pD u * y)%ps
               else False
        end
    | EF1 code a => exists u, DenF f a u /\ fspec code u y
    | _ => False
    end
  end.

Lemma visit_num f n prec p q :
  visit f (ENum n) prec = Ok p -> num_q n = Some q -> p = pconst q.
Proof.
  destruct f as [|f]; [discriminate|]. cbn [visit].
  destruct n; intros H Hq; try discriminate H; injection H as <-; injection Hq as <-; reflexivity.
Qed.

Section Sound.
Variable prec : N.
Hypothesis Hp : (1 < prec < 2147483648)%N.
Let P := N.to_nat prec.

Definition sound_at (f : nat) : Prop :=
  forall e r y, visit f e prec = Ok r -> DenF f e y -> wf r /\ eqn P (den r) y.

Lemma coef0_eqn p (u : ps) : eqn P (den p) u -> coef p 0 == u O.
Proof using Hp. intros H. apply (H O). unfold P. lia. Qed.

Lemma add_sound f : sound_at f -> forall d acc r (a y : ps),
  wf acc -> eqn P (den acc) a ->
  fold_res (fun temp kv => do pa <- visit f (fst kv) prec;
                           do pb <- visit f (ENum (snd kv)) prec;
                           Ok (padd temp (pmul_full pa pb))) d acc = Ok r ->
  den_add (DenF f) d a y -> wf r /\ eqn P (den r) y.
Proof using.
  intros IH d; induction d as [|[e k] rest IHd]; intros acc r a y Wacc Hacc Hf HD; cbn [fold_res] in Hf.
  - inversion Hf; subst r. split; [exact Wacc|]. cbn [den_add] in HD. rewrite HD. exact Hacc.
  - cbn [den_add] in HD. destruct HD as (u & q & Du & Hq & HD).
    cbn [fst snd] in Hf.
    destruct (visit f e prec) as [pa| | |] eqn:Ea; cbn [bind] in Hf; try discriminate Hf.
    destruct (visit f (ENum k) prec) as [pb| | |] eqn:Eb; cbn [bind] in Hf; try discriminate Hf.
    destruct (IH e pa u Ea Du) as [Wa Ha].
    rewrite (visit_num f k prec pb q Eb Hq) in Hf.
    apply (IHd (padd acc (pmul_full pa (pconst q))) r (a + u * pC q)%ps y).
    + auto with wf.
    + rewrite den_padd. apply eqn_add; [exact Hacc|].
      rewrite den_pmul_full by auto with wf. rewrite den_pconst.
      apply eqn_mul; [exact Ha|reflexivity].
    + exact Hf.
    + exact HD.
Qed.

Lemma mul_sound f : sound_at f -> forall d acc r (a y : ps),
  wf acc -> eqn P (den acc) a ->
  fold_res (fun temp kv => do pa <- visit f (mkpow (fst kv) (snd kv)) prec;
                           Ok (pmul temp pa prec)) d acc = Ok r ->
  den_mul (DenF f) d a y -> wf r /\ eqn P (den r) y.
Proof using Hp.
  intros IH d; induction d as [|[k v] rest IHd]; intros acc r a y Wacc Hacc Hf HD; cbn [fold_res] in Hf.
  - inversion Hf; subst r. split; [exact Wacc|]. cbn [den_mul] in HD. rewrite HD. exact Hacc.
  - cbn [den_mul] in HD. destruct HD as (u & Du & HD).
    cbn [fst snd] in Hf.
    destruct (visit f (mkpow k v) prec) as [pa| | |] eqn:Ea; cbn [bind] in Hf; try discriminate Hf.
    destruct (IH (mkpow k v) pa u Ea Du) as [Wa Ha].
    apply (IHd (pmul acc pa prec) r (a * u)%ps y).
    + auto with wf.
    + apply mul_compose; [exact Wacc|exact Wa|lia|exact Hacc|exact Ha].
    + exact Hf.
    + exact HD.
Qed.

Lemma f1_sound code p r (u y : ps) :
  wf p -> eqn P (den p) u -> apply_f1 code p prec = Ok r -> fspec code u y ->
  wf r /\ eqn P (den r) y.
Proof using Hp.
  intros Wp Hpu Hr Hs. unfold fspec in Hs.
  assert (H0 : forall c, u O == c -> coef p 0 == c)
    by (intros c Hc; rewrite (coef0_eqn p u Hpu); exact Hc).
  assert (Hp1 : (0 < prec < 2147483648)%N) by lia.
  destruct (N.eqb_spec code TC_Sin) as [->|_].
  { destruct Hs as (U0 & yc & Y0 & C0 & Dy & Dc).
    destruct (sin_cos_spec p prec Wp (H0 0 U0) Hp1) as (rs & rc & _ & Ec & _).
    exact (proj1 (sin_cos_compose p prec r rc u y yc Wp (H0 0 U0) Hp1 Hr Ec Hpu Y0 C0 Dy Dc)). }
  destruct (N.eqb_spec code TC_Cos) as [->|_].
  { destruct Hs as (U0 & ys & Y0 & C0 & Dy & Dc).
    destruct (sin_cos_spec p prec Wp (H0 0 U0) Hp1) as (rs & rc & Es & _).
    exact (proj2 (sin_cos_compose p prec rs r u ys y Wp (H0 0 U0) Hp1 Es Hr Hpu Y0 C0 Dy Dc)). }
  destruct (N.eqb_spec code TC_Sinh) as [->|_].
  { destruct Hs as (U0 & yc & Y0 & C0 & Dy & Dc).
    destruct (sinh_cosh_spec p prec Wp (H0 0 U0) Hp1) as (rs & rc & _ & Ec & _).
    exact (proj1 (sinh_cosh_compose p prec r rc u y yc Wp (H0 0 U0) Hp1 Hr Ec Hpu Y0 C0 Dy Dc)). }
  destruct (N.eqb_spec code TC_Cosh) as [->|_].
  { destruct Hs as (U0 & ys & Y0 & C0 & Dy & Dc).
    destruct (sinh_cosh_spec p prec Wp (H0 0 U0) Hp1) as (rs & rc & Es & _).
    exact (proj2 (sinh_cosh_compose p prec rs r u ys y Wp (H0 0 U0) Hp1 Es Hr Hpu Y0 C0 Dy Dc)). }
  destruct (N.eqb_spec code TC_Tan) as [->|_].
  { destruct Hs as (U0 & Y0 & Dy). exact (tan_compose p prec r u y Wp (H0 0 U0) Hp1 Hr Hpu Y0 Dy). }
  destruct (N.eqb_spec code TC_Tanh) as [->|_].
  { destruct Hs as (U0 & Y0 & Dy). exact (tanh_compose p prec r u y Wp (H0 0 U0) Hp1 Hr Hpu Y0 Dy). }
  destruct (N.eqb_spec code TC_ATan) as [->|_].
  { destruct Hs as (U0 & Y0 & Dy). exact (atan_compose p prec r u y Wp (H0 0 U0) Hp1 Hr Hpu Y0 Dy). }
  destruct (N.eqb_spec code TC_ATanh) as [->|_].
  { destruct Hs as (U0 & Y0 & Dy). exact (atanh_compose p prec r u y Wp (H0 0 U0) Hp1 Hr Hpu Y0 Dy). }
  destruct (N.eqb_spec code TC_ASin) as [->|_].
  { destruct Hs as (U0 & v & Y0 & V0 & Hv & Dy).
    exact (asin_compose p prec r u y v Wp (H0 0 U0) Hp Hr Hpu Y0 V0 Hv Dy). }
  destruct (N.eqb_spec code TC_ASinh) as [->|_].
  { destruct Hs as (U0 & v & Y0 & V0 & Hv & Dy).
    exact (asinh_compose p prec r u y v Wp (H0 0 U0) Hp Hr Hpu Y0 V0 Hv Dy). }
  destruct (N.eqb_spec code TC_LambertW) as [->|_].
  { destruct Hs as (U0 & F & Y0 & F0 & DF & MF).
    exact (lambertw_compose p prec r u y F Wp (H0 0 U0) Hp1 Hr Hpu Y0 F0 DF MF). }
  destruct (N.eqb_spec code TC_Log) as [->|_].
  { destruct Hs as (U0 & Y0 & Dy). exact (log_compose p prec r u y Wp (H0 1 U0) Hp1 Hr Hpu Y0 Dy). }
  contradiction.
Qed.

(* E^ex: series_exp *)
Lemma exp_case f (IH : sound_at f) ex r (y : ps) :
  (do pe <- visit f ex prec; series_exp pe prec) = Ok r ->
  (exists u, DenF f ex u /\ u O == 0 /\ y O == 1 /\ pD y =p (pD u * y)%ps) ->
  wf r /\ eqn P (den r) y.
Proof using Hp.
  intros Hv (u & Du & U0 & Y0 & Dy).
  destruct (visit f ex prec) as [pe| | |] eqn:Ee; cbn [bind] in Hv; try discriminate Hv.
  destruct (IH _ pe u Ee Du) as [We He].
  assert (C0 : coef pe 0 == 0) by (rewrite (coef0_eqn pe u He); exact U0).
  exact (exp_compose pe prec r u y We C0 ltac:(lia) Hv He Y0 Dy).
Qed.

(* integer exponents: powers >= 2 by ppow, -1 by series_invert *)
Lemma int_pow_case f (IH : sound_at f) b sh r (y : ps) :
  visit (S f) (EPow b (ENum (NInt sh))) prec = Ok r -> DenF (S f) (EPow b (ENum (NInt sh))) y ->
  wf r /\ eqn P (den r) y.
Proof using Hp.
  intros Hv HD. cbn [visit] in Hv. cbn [DenF] in HD.
  destruct ((sh <? - INT_LIM)%Z || (INT_LIM <=? sh)%Z); [discriminate Hv|].
  destruct (visit f b prec) as [pb| | |] eqn:Eb; cbn [bind] in Hv; try discriminate Hv.
  destruct ((2 <=? sh)%Z && (sh <? INT_LIM)%Z) eqn:H2.
  - apply andb_prop in H2. destruct H2 as [A B]. apply Z.leb_le in A.
    destruct HD as (u & Du & Hy). destruct (IH _ pb u Eb Du) as [Wb Hb].
    destruct (Z.eqb_spec sh 1); [lia|]. destruct (Z.ltb_spec 0 sh); [|lia].
    destruct sh as [|psh|]; try lia.
    destruct (ppow_ok pb psh prec Wb ltac:(lia)) as (r' & Er & Wr & Hr).
    rewrite Hv in Er. inversion Er; subst r'. split; [exact Wr|].
    rewrite Hr, Hy. change (Z.to_nat (Z.pos psh)) with (Pos.to_nat psh). apply eqn_ppow. exact Hb.
  - destruct (Z.eqb_spec sh (-1)); [|contradiction]. subst sh.
    destruct HD as (u & Du & U0 & Hy). destruct (IH _ pb u Eb Du) as [Wb Hb].
    change ((-1 =? 1)%Z) with false in Hv. change ((0 <? -1)%Z) with false in Hv.
    change ((-1 =? -1)%Z) with true in Hv. cbv match in Hv.
    assert (C0 : ~ coef pb 0 == 0) by (rewrite (coef0_eqn pb u Hb); exact U0).
    exact (invert_compose pb prec r u y Wb C0 ltac:(lia) Hv Hb Hy).
Qed.

(* rational exponent 1/dn: series_nthroot *)
Lemma root_case f (IH : sound_at f) b num dn r (y : ps) :
  visit (S f) (EPow b (ENum (NRat num dn))) prec = Ok r -> DenF (S f) (EPow b (ENum (NRat num dn))) y ->
  wf r /\ eqn P (den r) y.
Proof using Hp.
  intros Hv HD. cbn [visit] in Hv. cbn [DenF] in HD.
  destruct ((num =? 1)%Z && (2 <=? Zpos dn)%Z && (Zpos dn <? INT_LIM)%Z) eqn:G; [|contradiction].
  apply andb_prop in G. destruct G as [G G3]. apply andb_prop in G. destruct G as [G1 G2].
  apply Z.eqb_eq in G1. apply Z.leb_le in G2. apply Z.ltb_lt in G3. subst num.
  destruct HD as (u & c & Du & U0 & Hq & Y0 & Hy).
  assert (L : ((1 <? - INT_LIM)%Z || (INT_LIM <=? 1)%Z || (INT_LIM <=? Zpos dn)%Z) = false).
  { unfold INT_LIM in *. destruct (Z.leb_spec 2147483648 (Zpos dn)); [lia|reflexivity]. }
  rewrite L in Hv.
  destruct (visit f b prec) as [pb| | |] eqn:Eb; cbn [bind] in Hv; try discriminate Hv.
  destruct (IH _ pb u Eb Du) as [Wb Hb].
  assert (C0 : ~ coef pb 0 == 0) by (rewrite (coef0_eqn pb u Hb); exact U0).
  assert (Hq' : qroot (find_cf pb 0) dn = Ok c).
  { rewrite <- Hq. apply qroot_proper. rewrite (find_cf_coef pb 0 (proj1 Wb)).
    exact (coef0_eqn pb u Hb). }
  destruct (series_nthroot pb (Z.pos dn) prec) as [r'| | |] eqn:Er; cbn [bind] in Hv; try discriminate Hv.
  change ((1 =? 1)%Z) with true in Hv. cbv match in Hv. injection Hv as <-.
  exact (nthroot_compose pb dn prec c r' u y Wb C0 G2 ltac:(lia) Hq' Er Hb Y0 Hy).
Qed.

Theorem visit_sound_fuel : forall f, sound_at f.
Proof using Hp.
  induction f as [|f IH]; intros e r y Hv HD; [discriminate Hv|].
  destruct e; cbn [DenF] in HD; try contradiction.
  - (* ENum *)
    destruct HD as (q & Hq & Hy).
    rewrite (visit_num (S f) n prec r q Hv Hq).
    split; [apply wf_pconst|]. rewrite den_pconst, Hy. reflexivity.
  - (* ESym *)
    destruct HD as (Hn & Hy). cbn [visit] in Hv. rewrite Hn in Hv. inversion Hv; subst r.
    split; [apply wf_pvar|]. rewrite den_pvar, Hy. reflexivity.
  - (* EAdd *)
    destruct HD as (c & Hc & HD). cbn [visit] in Hv.
    destruct (visit f (ENum coef) prec) as [pc| | |] eqn:Ec; cbn [bind] in Hv; try discriminate Hv.
    rewrite (visit_num f coef prec pc c Ec Hc) in Hv.
    apply (add_sound f IH d (pconst c) r (pC c) y); [apply wf_pconst|rewrite den_pconst; reflexivity|exact Hv|exact HD].
  - (* EMul *)
    destruct HD as (c & Hc & HD). cbn [visit] in Hv.
    destruct (visit f (ENum coef) prec) as [pc| | |] eqn:Ec; cbn [bind] in Hv; try discriminate Hv.
    rewrite (visit_num f coef prec pc c Ec Hc) in Hv.
    apply (mul_sound f IH d (pconst c) r (pC c) y); [apply wf_pconst|rewrite den_pconst; reflexivity|exact Hv|exact HD].
  - (* EPow *)
    destruct e2 as [n| | | | | | | | | | | | | | | | |];
      try (cbn [visit] in Hv; cbv beta match in HD;
           destruct (is_E e1); [exact (exp_case f IH _ r y Hv HD)|contradiction]).
    destruct n as [sh|num dn| | | | |]; cbv beta match in HD; try contradiction.
    + exact (int_pow_case f IH e1 sh r y Hv HD).
    + exact (root_case f IH e1 num dn r y Hv HD).
  - (* EF1 *)
    destruct HD as (u & Du & Hs). cbn [visit] in Hv.
    destruct (f1_modelled code); [|discriminate Hv].
    destruct (visit f e prec) as [pa| | |] eqn:Ea; cbn [bind] in Hv; try discriminate Hv.
    destruct (IH _ pa u Ea Du) as [Wa Ha].
    apply (f1_sound code pa r u y Wa Ha Hv Hs).
Qed.
End Sound.

Theorem visit_sound e prec r (y : ps) :
  (1 < prec < 2147483648)%N ->
  series_top e prec = Ok r -> DenF (2 * size e + 2) e y ->
  wf r /\ eqn (N.to_nat prec) (den r) y.
Proof. intros Hp Hr HD. apply (visit_sound_fuel prec Hp _ e r y Hr HD). Qed.
