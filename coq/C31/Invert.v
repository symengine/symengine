(* C31 -- step_list (the precision chain 2, ..., prec in which no step more than doubles), loops along it
   that carry an invariant from precision 1 to prec, and series_invert: the Newton iteration p <- p (2 - p s)
   computes the inverse modulo x^prec. *)
From Coq Require Import QArith Qring Qfield Setoid Morphisms Lia List ZArith NArith.
From SE Require Import C31.SeriesModel C31.PS C31.Newton C31.Sem.
Local Open Scope Q_scope.

(* every step is at most twice the previous one *)
Fixpoint chain_ok (m : N) (l : list N) : Prop :=
  match l with
  | [] => True
  | s :: r => (s <= 2 * m)%N /\ chain_ok s r
  end.

Lemma pos_size_nat_gt p : (Npos p < 2 ^ N.of_nat (Pos.size_nat p))%N.
Proof.
  induction p; cbn [Pos.size_nat]; rewrite Nat2N.inj_succ, N.pow_succ_r'; lia.
Qed.
Lemma size_nat_gt n : (n < 2 ^ N.of_nat (N.size_nat n))%N.
Proof. destruct n; [simpl; lia|apply pos_size_nat_gt]. Qed.

(* The chain is built from its end: acc ++ [prec] begins with tprec and no step in it more than doubles.  A round
   puts t = 2 + tprec / 2 in front (tprec <= 2 t); t - 4 is half of tprec - 4, so [fuel] rounds bring any
   tprec < 4 + 2^fuel down to at most 4, twice the leading 2. *)
Lemma steps_chain_ok prec fuel : forall tprec acc,
  (tprec < 4 + 2 ^ N.of_nat fuel)%N ->
  (exists rest, acc ++ [prec] = tprec :: rest /\ chain_ok tprec rest) ->
  chain_ok 2 (steps_chain fuel tprec acc ++ [prec]).
Proof.
  induction fuel; intros tprec acc Hlt (rest & E & Hc).
  - simpl. rewrite E. simpl in Hlt. split; [lia|assumption].
  - cbn [steps_chain].
    assert (D1 := N.mul_div_le tprec 2 ltac:(lia)). assert (D2 := N.mul_succ_div_gt tprec 2 ltac:(lia)).
    destruct (N.ltb_spec 4 tprec).
    + apply IHfuel.
      * rewrite Nat2N.inj_succ, N.pow_succ_r' in Hlt. lia.
      * exists (tprec :: rest). split; [simpl; rewrite E; reflexivity|].
        split; [lia|assumption].
    + rewrite E. split; [lia|assumption].
Qed.

Lemma step_list_chain prec : chain_ok 1 (step_list prec).
Proof.
  unfold step_list. cbn [app]. split; [lia|].
  apply steps_chain_ok.
  - pose proof (size_nat_gt prec). rewrite Nat2N.inj_succ, N.pow_succ_r'. lia.
  - exists []. split; [reflexivity|exact I].
Qed.

(* the halving chain stays between 2 and any bound on its start *)
Lemma steps_chain_bounds M fuel : forall tprec acc,
  (tprec <= M)%N -> Forall (fun s => (2 <= s <= M)%N) acc ->
  Forall (fun s => (2 <= s <= M)%N) (steps_chain fuel tprec acc).
Proof.
  induction fuel; intros tprec acc Ht Ha; cbn [steps_chain]; [assumption|].
  destruct (N.ltb_spec 4 tprec); [|assumption].
  assert (D1 := N.mul_div_le tprec 2 ltac:(lia)). assert (D2 := N.mul_succ_div_gt tprec 2 ltac:(lia)).
  apply IHfuel; [lia|]. constructor; [lia|assumption].
Qed.
Lemma step_list_bounds prec M : (4 <= M)%N -> (prec <= M)%N ->
  Forall (fun s => (s <= M)%N /\ (0 < prec -> 1 <= s)%N) (step_list prec).
Proof.
  intros H4 HM. unfold step_list. cbn [app]. constructor; [lia|].
  apply Forall_app; split; [|constructor; [lia|constructor]].
  eapply Forall_impl; [|apply (steps_chain_bounds M); [exact HM|constructor]]. simpl. lia.
Qed.
Lemma step_list_le prec : Forall (fun s => (s <= N.max prec 4)%N) (step_list prec).
Proof. eapply Forall_impl; [|apply (step_list_bounds prec (N.max prec 4)); lia]. simpl. tauto. Qed.
Lemma step_list_last prec d : last (step_list prec) d = prec.
Proof. unfold step_list. apply last_last. Qed.

Definition step_ok (st : N) : Prop := (1 <= st < 2147483648)%N.

Lemma step_list_ok prec : (0 < prec < 2147483648)%N -> Forall step_ok (step_list prec).
Proof.
  intros Hp. eapply Forall_impl; [|apply (step_list_bounds prec 2147483647); lia]. unfold step_ok. simpl. lia.
Qed.

Lemma last_cons_default {A} (a : A) l d d' : last (a :: l) d = last (a :: l) d'.
Proof.
  revert a; induction l as [|b l IH]; intros a; [reflexivity|].
  change (last (b :: l) d = last (b :: l) d'). apply IH.
Qed.

Lemma fold_res_chain {A : Type} (P : N -> Prop) (Inv : N -> A -> Prop) (f : A -> N -> res A) :
  (forall m st a, Inv m a -> (st <= 2 * m)%N -> P st -> exists a', f a st = Ok a' /\ Inv st a') ->
  forall steps m a, Inv m a -> chain_ok m steps -> Forall P steps ->
  exists a', fold_res f steps a = Ok a' /\ Inv (last steps m) a'.
Proof.
  intros Hstep steps; induction steps as [|st r IH]; intros m a Ha Hc Hf; cbn [fold_res].
  - exists a. split; [reflexivity|exact Ha].
  - destruct Hc as [Hst Hc]. inversion Hf as [|? ? Hs1 Hf']; subst.
    destruct (Hstep m st a Ha Hst Hs1) as (a1 & E1 & I1). rewrite E1. cbn [bind].
    destruct (IH st a1 I1 Hc Hf') as (a2 & E2 & I2). exists a2. split; [exact E2|].
    destruct r as [|st' r']; [exact I2|].
    change (last (st :: st' :: r') m) with (last (st' :: r') m).
    rewrite (last_cons_default st' r' m st). exact I2.
Qed.

(* an invariant that holds at precision 1 and survives every step that at most doubles the precision holds at
   prec after the loop over step_list prec (P: what the steps need of a precision, see step_list_ok) *)
Lemma newton_loop {A : Type} (P : N -> Prop) (Inv : N -> A -> Prop) (f : A -> N -> res A) (a : A) prec :
  Forall P (step_list prec) ->
  (forall m st a, Inv m a -> (st <= 2 * m)%N -> P st -> exists a', f a st = Ok a' /\ Inv st a') ->
  Inv 1%N a -> exists a', fold_res f (step_list prec) a = Ok a' /\ Inv prec a'.
Proof.
  intros Hp Hstep Ha.
  destruct (fold_res_chain P Inv f Hstep (step_list prec) 1%N a Ha (step_list_chain prec) Hp)
    as (a' & E & I).
  rewrite step_list_last in I. exists a'. split; assumption.
Qed.

Lemma fold_res_total {A B : Type} (g : A -> B -> A) l a :
  fold_res (fun a b => Ok (g a b)) l a = Ok (fold_left g l a).
Proof. revert a; induction l as [|b l IH]; intros a; [reflexivity|apply IH]. Qed.

Definition inv_step (s : poly) (p : poly) (st : N) : poly :=
  pmul (psub (pint 2) (pmul p s st)) p st.

Lemma pC_two : pC (inject_Z 2) =p (p1 + p1)%ps.
Proof. intros [|n]; unfold padd_s, p1, pC; simpl; ring. Qed.

Lemma inv_step_ok s p st m :
  wf s -> wf p -> (st <= 2 * m)%N -> (st < 2147483648)%N ->
  eqn (N.to_nat m) (den p * den s)%ps p1 ->
  wf (inv_step s p st) /\ eqn (N.to_nat st) (den (inv_step s p st) * den s)%ps p1.
Proof.
  intros Ws Wp Hst Hsm H. unfold inv_step.
  split; [auto with wf|].
  assert (E1 : eqn (N.to_nat st) (den (pmul (psub (pint 2) (pmul p s st)) p st))
                   ((p1 + p1 - den p * den s) * den p)%ps).
  { rewrite eqn_pmul by auto with wf.
    apply eqn_mul; [|reflexivity].
    rewrite den_psub, den_pint, pC_two.
    apply eqn_sub; [reflexivity|]. apply eqn_pmul; assumption. }
  rewrite E1.
  assert (E2 : ((p1 + p1 - den p * den s) * den p * den s)%ps
               =p (den p * (p1 + p1 - den p * den s) * den s)%ps) by ring.
  rewrite E2. apply (newton_inverse_step (N.to_nat m)); [lia|assumption].
Qed.

Theorem invert_spec s prec :
  wf s -> ~ coef s 0 == 0 -> (prec < 2147483648)%N ->
  exists r, series_invert s prec = Ok r /\ wf r /\
            eqn (N.to_nat prec) (den r * den s)%ps p1.
Proof.
  intros Ws H0 Hp. destruct (wf_head s Ws H0) as (v & Ev & Hc & Hl & Hn).
  assert (Hv : qis0 v = false) by (apply qis0_false; rewrite Ev; assumption).
  unfold series_invert. rewrite Hn.
  destruct (peqb s (pint 1)) eqn:E1.
  - exists (pint 1). split; [reflexivity|]. split; [apply wf_pconst|].
    apply peq_eqn. rewrite (peqb_den _ _ E1). rewrite den_pint.
    rewrite pC_mulC. intros [|n]; reflexivity.
  - rewrite Hl. cbn [bind]. rewrite Hc, Hv. rewrite !Z.eqb_refl. cbn [bind].
    set (p0 := pconst (qinv v)).
    assert (Wp0 : wf p0) by apply wf_pconst.
    assert (E0 : eqn (N.to_nat 1) (den p0 * den s)%ps p1).
    { intros k Hk. assert (k = O) by lia; subst k. rewrite pmul_coef0.
      unfold p0. rewrite (den_pconst (qinv v) O). unfold pC, p1, den. simpl Z.of_nat.
      rewrite qinv_ok, <- Ev. change (pC 1 0%nat) with 1. field.
      intro Hz; apply H0; rewrite <- Ev; exact Hz. }
    destruct (newton_loop (fun st => (st < 2147483648)%N)
                (fun m p => wf p /\ eqn (N.to_nat m) (den p * den s)%ps p1)
                (fun p st => Ok (inv_step s p st)) p0 prec) as (r & Er & Wr & Hr).
    + eapply Forall_impl; [|apply step_list_le]. simpl. intros; lia.
    + intros m st p [Wp Hm] Hst Hok. eexists. split; [reflexivity|].
      apply (inv_step_ok s p st m Ws Wp Hst Hok Hm).
    + split; assumption.
    + rewrite fold_res_total in Er. injection Er as <-.
    eexists. split; [reflexivity|]. split; assumption.
Qed.

(* the inverse only depends on the input modulo x^prec (non-zero constant terms) *)
Theorem invert_congruence s t prec r r' :
  wf s -> wf t -> ~ coef s 0 == 0 -> ~ coef t 0 == 0 -> (prec < 2147483648)%N ->
  eqn (N.to_nat prec) (den s) (den t) ->
  series_invert s prec = Ok r -> series_invert t prec = Ok r' ->
  eqn (N.to_nat prec) (den r) (den r').
Proof.
  intros Ws Wt Hs Ht Hp Hst Er Er'.
  destruct (invert_spec s prec Ws Hs Hp) as (x & Ex & _ & Hx).
  destruct (invert_spec t prec Wt Ht Hp) as (y & Ey & _ & Hy).
  rewrite Er in Ex; inversion Ex; subst x. rewrite Er' in Ey; inversion Ey; subst y.
  apply (inverse_unique _ _ _ (den s) (den t)); assumption.
Qed.
