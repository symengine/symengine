(* C31 -- series_sinh / series_cosh (through exp and its inverse). *)
From Coq Require Import QArith Qring Qfield Setoid Morphisms Lia List ZArith NArith.
From SE Require Import C31.SeriesModel C31.PS C31.Sem C31.Invert C31.Exp.
Local Open Scope Q_scope.
Local Open Scope res_scope.

Lemma pD_inverse_exp (n : nat) (g e ie : ps) :
  ~ e O == 0 -> eqn n (pD e) (g * e)%ps -> eqn (S n) (ie * e)%ps p1 ->
  eqn n (pD ie) (- (g * ie))%ps.
Proof.
  intros He Hd Hi.
  apply (cancel_unit n _ _ e He).
  assert (A : eqn n (pD (ie * e)%ps) p0).
  { rewrite (eqn_pD n _ _ Hi). apply peq_eqn. apply pD_C. }
  rewrite pD_mul in A.
  assert (B : eqn n (pD ie * e)%ps (- (ie * pD e))%ps).
  { apply eqn_of_vge_sub.
    apply (vge_peq n (pD ie * e + ie * pD e)%ps); [ring|]. apply eqn_vge. exact A. }
  rewrite B, Hd. apply peq_eqn. ring.
Qed.

Lemma psub_pconst_0 s c : qis0 c = true -> psub s (pconst c) = s.
Proof. intros H. unfold pconst. rewrite H. reflexivity. Qed.

Theorem sinh_cosh_spec s prec :
  wf s -> coef s 0 == 0 -> (0 < prec < 2147483648)%N ->
  exists rs rc, series_sinh s prec = Ok rs /\ series_cosh s prec = Ok rc /\
    wf rs /\ wf rc /\ den rs O == 0 /\ den rc O == 1 /\
    eqn (N.to_nat prec - 1) (pD (den rs)) (pD (den s) * den rc)%ps /\
    eqn (N.to_nat prec - 1) (pD (den rc)) (pD (den s) * den rs)%ps.
Proof.
  intros Ws S0 Hp. unfold series_sinh, series_cosh.
  assert (Hq := find_cf_0 s Ws S0).
  rewrite (psub_pconst_0 s _ Hq), Hq.
  destruct (exp_spec s prec Ws S0 Hp) as (e & Ee & We & E0 & HE).
  rewrite Ee. cbn [bind].
  assert (E0n : ~ coef e 0 == 0) by exact (one_neq0 _ E0).
  destruct (invert_spec e prec We E0n (proj2 Hp)) as (ie & Ei & Wi & HI).
  rewrite Ei. cbn [bind].
  destruct (pdiv_q_ok (psub e ie) (2 # 1)) as (rs & Ers & Wrs & Drs); [auto with wf|discriminate|].
  destruct (pdiv_q_ok (padd e ie) (2 # 1)) as (rc & Erc & Wrc & Drc); [auto with wf|discriminate|].
  rewrite Ers, Erc. exists rs, rc. split; [reflexivity|]. split; [reflexivity|].
  rewrite den_psub in Drs. rewrite den_padd in Drc.
  assert (I0 : den ie O == 1) by exact (inverse_coef0 (N.to_nat prec) _ _ ltac:(lia) HI E0).
  split; [exact Wrs|]. split; [exact Wrc|].
  split; [rewrite (Drs O); unfold pscale, psub_s; rewrite E0, I0; reflexivity|].
  split; [rewrite (Drc O); unfold pscale, padd_s; rewrite E0, I0; reflexivity|].
  set (n := (N.to_nat prec - 1)%nat) in *.
  assert (HDI : eqn n (pD (den ie)) (- (pD (den s) * den ie))%ps).
  { apply (pD_inverse_exp n (pD (den s)) (den e) (den ie)).
    - rewrite E0. discriminate.
    - exact HE.
    - replace (S n) with (N.to_nat prec) by (unfold n; lia). exact HI. }
  split.
  - rewrite Drs, Drc, pD_scale, pD_sub. rewrite <- !pC_mul. rewrite HE, HDI. apply peq_eqn. ring.
  - rewrite Drs, Drc, pD_scale, pD_add. rewrite <- !pC_mul. rewrite HE, HDI. apply peq_eqn. ring.
Qed.
