(* C31 obligation (guarded): with non-zero constant terms the inverse only depends on the
   argument modulo x^prec.  Without the guard this is refuted (P_refuted.v). *)
From Coq Require Import QArith List ZArith NArith.
From SE Require Import C31.VisitorModel.
From SE Require Import C31.SeriesSpec C31.Invert.
Local Open Scope Q_scope.
Theorem C31_invert_congruence_guarded :
  forall (s t : poly) (prec : N) (r r' : poly),
    wfb s = true -> wfb t = true -> const0 s = false -> const0 t = false ->
    (prec < 2147483648)%N -> eqn (N.to_nat prec) (den s) (den t) ->
    series_invert s prec = Ok r -> series_invert t prec = Ok r' ->
    eqn (N.to_nat prec) (den r) (den r').
Proof.
  intros s t prec r r' Ws Wt Hs Ht.
  exact (invert_congruence s t prec r r' (wfb_wf s Ws) (wfb_wf t Wt) (const0_false_coef s Ws Hs)
           (const0_false_coef t Wt Ht)).
Qed.
Print Assumptions C31_invert_congruence_guarded.
