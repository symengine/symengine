(* C31 obligation: series_invert (Newton iteration along step_list) returns the inverse
   modulo x^prec of every power series with non-zero constant term. *)
From Coq Require Import QArith List ZArith NArith.
From SE Require Import C31.VisitorModel.
From SE Require Import C31.SeriesSpec C31.Invert.
Local Open Scope Q_scope.
Theorem C31_invert_spec :
  forall (s : poly) (prec : N),
    wfb s = true -> const0 s = false -> (prec < 2147483648)%N ->
    exists r, series_invert s prec = Ok r /\ wf r /\
              eqn (N.to_nat prec) (den r * den s)%ps p1.
Proof.
  intros s prec W H Hp. exact (invert_spec s prec (wfb_wf s W) (const0_false_coef s W H) Hp).
Qed.
Print Assumptions C31_invert_spec.
