(* C31: the hypotheses of the theorems are satisfiable by non-trivial inputs, and the
   conclusions are observable on them. *)
From Coq Require Import QArith List ZArith NArith Lia.
From SE Require Import C31.VisitorModel.
From SE Require Import C31.SeriesSpec C31.Invert C31.LogAtan C31.Exp C31.SeriesProofs C31.VisitorProofs.
Local Open Scope Q_scope.

Definition s1 : poly := [(0%Z, 2 # 1); (1%Z, 1 # 3); (3%Z, -5 # 7)].      (* 2 + x/3 - 5x^3/7 *)
Definition s0 : poly := [(1%Z, 1 # 2); (2%Z, 3 # 1); (4%Z, -1 # 6)].      (* x/2 + 3x^2 - x^4/6 *)
Definition s01 : poly := [(0%Z, 1 # 1); (1%Z, 1 # 2); (2%Z, 3 # 1)].      (* 1 + x/2 + 3x^2 *)

Example guard_invert : wfb s1 = true /\ const0 s1 = false.
Proof. vm_compute. split; reflexivity. Qed.
Example run_invert : exists r, series_invert s1 9 = Ok r /\ length r = 9%nat.
Proof. eexists. vm_compute. split; reflexivity. Qed.
Example guard_exp : wfb s0 = true /\ const0 s0 = true /\ prec_ok 9 = true /\ peqb s0 pvar = false.
Proof. vm_compute. repeat split; reflexivity. Qed.
Example run_exp : exists r, series_exp s0 9 = Ok r /\ length r = 9%nat.
Proof. eexists. vm_compute. split; reflexivity. Qed.
Example run_atan : exists r, series_atan s0 9 = Ok r /\ length r = 8%nat.
Proof. eexists. vm_compute. split; reflexivity. Qed.
Example guard_log : wfb s01 = true /\ const1 s01 = true.
Proof. vm_compute. split; reflexivity. Qed.
Example run_log : exists r, series_log s01 9 = Ok r /\ length r = 8%nat.
Proof. eexists. vm_compute. split; reflexivity. Qed.
(* exp(log(1 + x/2 + 3x^2)) = 1 + x/2 + 3x^2 modulo x^9 *)
Example exp_log_roundtrip :
  bind (series_log s01 9) (fun l => series_exp l 9) = Ok s01.
Proof. vm_compute. reflexivity. Qed.
(* the visitor on sin(x): x - x^3/6 + x^5/120 *)
Example visitor_sin :
  series_top (EF1 TC_Sin (ESym name_x)) 7 = Ok [(1%Z, 1); (3%Z, -1 # 6); (5%Z, 1 # 120)].
Proof. vm_compute. reflexivity. Qed.

(* roots: 4 + x/3 - 5x^3/7 has the perfect-square constant term 4 *)
Definition s4 : poly := [(0%Z, 4 # 1); (1%Z, 1 # 3); (3%Z, -5 # 7)].
Example guard_root : wfb s4 = true /\ const0 s4 = false /\ qroot (find_cf s4 0) 2 = Ok (2 # 1).
Proof. vm_compute. repeat split; reflexivity. Qed.
Example run_root : exists r, series_nthroot s4 2 9 = Ok r /\ length r = 9%nat /\ find_cf r 0 == 2.
Proof. eexists. vm_compute. repeat split; reflexivity. Qed.
Example run_root_roundtrip :
  bind (series_nthroot s4 2 9) (fun r => ppow r 2 9) = Ok s4.
Proof. vm_compute. reflexivity. Qed.
Example guard_prec2 : prec_ok2 9 = true.
Proof. reflexivity. Qed.
Example run_tan : exists r, series_tan s0 8 = Ok r /\ length r = 7%nat.
Proof. eexists. vm_compute. split; reflexivity. Qed.
Example run_tanh : exists r, series_tanh s0 8 = Ok r /\ length r = 7%nat.
Proof. eexists. vm_compute. split; reflexivity. Qed.
Example run_asin : exists r, series_asin s0 8 = Ok r /\ length r = 10%nat.
Proof. eexists. vm_compute. split; reflexivity. Qed.
Example run_lambertw : exists r, series_lambertw s0 8 = Ok r /\ length r = 7%nat.
Proof. eexists. vm_compute. split; reflexivity. Qed.
Example run_sinh_cosh :
  exists rs rc, series_sinh s0 8 = Ok rs /\ series_cosh s0 8 = Ok rc /\ length rs = 7%nat /\ length rc = 7%nat.
Proof. eexists. eexists. vm_compute. repeat split; reflexivity. Qed.
(* the chained visitor instance of P_compose.v is not vacuous *)
Example run_exp_sin :
  exists r, series_top (EPow (EConst name_E) (EF1 TC_Sin (ESym name_x))) 6 = Ok r /\ length r = 5%nat.
Proof. eexists. vm_compute. split; reflexivity. Qed.

(* the hypothesis DenF of the visitor soundness theorem is satisfiable: the formal exponential
   series sum x^n/n! is a Taylor series of exp(x), and series(exp(x), x, 9) succeeds *)
Example den_exp_x : DenF (2 * size (EPow (EConst name_E) (ESym name_x)) + 2)
                         (EPow (EConst name_E) (ESym name_x)) (fun n => / qfact n).
Proof.
  cbn [size Nat.add Nat.mul DenF]. change (is_E (EConst name_E)) with true. cbv match.
  exists pX. split; [split; reflexivity|]. split; [reflexivity|]. split; [reflexivity|].
  intros n. unfold pD.
  assert (E : (pD pX * (fun n => / qfact n))%ps n == / qfact n).
  { rewrite (pmul_proper _ _ pD_pX _ _ (reflexivity _) n). apply pmul_1_l. }
  unfold pD in E. rewrite E. cbn [qfact]. field.
  split; [apply qfact_neq0|apply (qnat_neq0 (S n)); lia].
Qed.
Example run_exp_x : exists r, series_top (EPow (EConst name_E) (ESym name_x)) 9 = Ok r /\ length r = 9%nat.
Proof. eexists. vm_compute. split; reflexivity. Qed.
