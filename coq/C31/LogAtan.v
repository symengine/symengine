(* C31 -- powers, and the functions computed as integrals of quotients:
   series_log, series_atan, series_atanh (general paths, and the "fast" path of log for 1+x; that of atan for x
   is in Tan.v). *)
From Coq Require Import QArith Qring Qfield Setoid Morphisms Lia List ZArith NArith.
From SE Require Import C31.SeriesModel C31.PS C31.Sem C31.Invert.
Local Open Scope Q_scope.

Definition ppow_pos_spec (e : positive) : Prop := forall x y prec,
  wf x -> wf y -> (prec < 2147483648)%N ->
  wf (ppow_pos x y e prec) /\
  eqn (N.to_nat prec) (den (ppow_pos x y e prec)) (ppow_s (den x) (Pos.to_nat e) * den y)%ps.

(* an even exponent 2e continues with the square of x *)
Lemma ppow_pos_sq e : ppow_pos_spec e -> forall x y prec,
  wf x -> wf y -> (prec < 2147483648)%N ->
  wf (ppow_pos x y e~0 prec) /\
  eqn (N.to_nat prec) (den (ppow_pos x y e~0 prec)) (ppow_s (den x) (2 * Pos.to_nat e) * den y)%ps.
Proof.
  intros IH x y prec Wx Wy Hp. cbn [ppow_pos].
  destruct (IH (pmul x x prec) y prec) as [W E]; [auto with wf|exact Wy|exact Hp|].
  split; [exact W|].
  rewrite E, (eqn_ppow _ _ _ (Pos.to_nat e) (eqn_pmul x x prec Wx Wx Hp)). apply peq_eqn.
  rewrite ppow_s_mul_base. replace (2 * Pos.to_nat e)%nat with (Pos.to_nat e + Pos.to_nat e)%nat by lia.
  rewrite ppow_s_add. ring.
Qed.

Lemma ppow_pos_ok e : ppow_pos_spec e.
Proof.
  induction e; intros x y prec Wx Wy Hp.
  - (* 2e + 1: as 2e, with x y in place of y *)
    change (ppow_pos x y e~1 prec) with (ppow_pos x (pmul x y prec) e~0 prec).
    destruct (ppow_pos_sq e IHe x (pmul x y prec) prec) as [W E]; [exact Wx|auto with wf|exact Hp|].
    split; [exact W|].
    rewrite E, Pos2Nat.inj_xI, (eqn_pmul x y prec Wx Wy Hp). cbn [ppow_s]. apply peq_eqn. ring.
  - rewrite Pos2Nat.inj_xO. exact (ppow_pos_sq e IHe x y prec Wx Wy Hp).
  - cbn [ppow_pos]. split; [auto with wf|].
    rewrite (eqn_pmul x y prec Wx Wy Hp).
    apply peq_eqn. change (Pos.to_nat 1) with 1%nat. cbn [ppow_s]. ring.
Qed.

Lemma ppow_ok x (p : positive) prec : wf x -> (prec < 2147483648)%N ->
  exists r, ppow x (Zpos p) prec = Ok r /\ wf r /\
            eqn (N.to_nat prec) (den r) (ppow_s (den x) (Pos.to_nat p)).
Proof.
  intros Wx Hp. cbn [ppow]. eexists; split; [reflexivity|].
  destruct (ppow_pos_ok p x (pint 1) prec Wx (wf_pconst _) Hp) as [W E]. split; [exact W|].
  rewrite E, den_pint_1. apply peq_eqn. ring.
Qed.

Lemma ppow2_ok x prec : wf x -> (prec < 2147483648)%N ->
  exists r, ppow x 2 prec = Ok r /\ wf r /\ eqn (N.to_nat prec) (den r) (den x * den x)%ps.
Proof.
  intros Wx Hp. destruct (ppow_ok x 2 prec Wx Hp) as (r & E & W & H).
  exists r. split; [exact E|]. split; [exact W|]. rewrite H.
  change (Pos.to_nat 2) with 2%nat. cbn [ppow_s]. apply peq_eqn. ring.
Qed.

Lemma pred32_small prec : (0 < prec < 4294967296)%N -> pred32 prec = (prec - 1)%N.
Proof.
  intros H. unfold pred32, usub, W32.
  rewrite (N.mod_small 1) by lia.
  replace (prec + 4294967296 - 1)%N with ((prec - 1) + 1 * 4294967296)%N by lia.
  rewrite N.mod_add by lia. apply N.mod_small. lia.
Qed.

(* the common tail of series_log, series_atan, series_atanh: invert p, multiply by s', integrate *)
Lemma quot_int_ok s p m' m (P : ps) :
  wf s -> wf p -> (m <= m' < 2147483648)%N -> ~ coef p 0 == 0 -> eqn (N.to_nat m) (den p) P ->
  exists ip r, series_invert p m' = Ok ip /\ pintegrate (pmul (pdiff s) ip m) = Ok r /\ wf r /\
               den r O == 0 /\ eqn (N.to_nat m) (pD (den r) * P)%ps (pD (den s)).
Proof.
  intros Ws Wp Hm Hp0 HP.
  destruct (invert_spec p m' Wp Hp0 (proj2 Hm)) as (ip & Ei & Wip & Hi).
  destruct (pintegrate_ok (pmul (pdiff s) ip m)) as (r & E & Wr & Dr); [auto with wf|].
  exists ip, r. split; [exact Ei|]. split; [exact E|]. split; [exact Wr|]. split; [rewrite (Dr O); reflexivity|].
  rewrite Dr, pD_pI, <- HP.
  rewrite eqn_pmul by (auto with wf; lia).
  rewrite den_pdiff, <- pmul_assoc, (eqn_le (N.to_nat m') (N.to_nat m) _ _ ltac:(lia) Hi). apply peq_eqn. ring.
Qed.

Lemma rem2_even i : (Z.rem (Z.of_nat i) 2 =? 0)%Z = Nat.even i.
Proof.
  rewrite Z.rem_mod_nonneg by lia.
  destruct (Nat.even i) eqn:Ev.
  - apply Nat.even_spec in Ev. destruct Ev as [k Hk]. subst i.
    rewrite Nat2Z.inj_mul, Z.mul_comm, Z_mod_mult. reflexivity.
  - assert (Od : Nat.odd i = true) by (rewrite <- Nat.negb_even, Ev; reflexivity).
    apply Nat.odd_spec in Od. destruct Od as [k Hk]. subst i.
    replace (Z.of_nat (2 * k + 1)) with (1 + Z.of_nat k * 2)%Z by lia.
    rewrite Z_mod_plus_full. reflexivity.
Qed.

(* with the terms up to x^j the sum r satisfies  r' (x + 1) = 1 - (-x)^j:  the next term (-1)^j x^(j+1) / (j+1) has
   derivative (-1)^j x^j *)
Lemma log_fast_ok cnt : forall (j : nat) monom res_p,
  wf monom -> wf res_p -> den monom =p xpow (S j) -> den res_p O == 0 ->
  (pD (den res_p) * (pX + p1))%ps =p (p1 + pC (sgn (S j)) * xpow j)%ps ->
  exists r, log_fast cnt (Z.of_nat (S j)) monom res_p = Ok r /\ wf r /\ den r O == 0 /\
            (pD (den r) * (pX + p1))%ps =p (p1 + pC (sgn (S (j + cnt))) * xpow (j + cnt))%ps.
Proof.
  induction cnt; intros j monom res_p Wm Wr Dm R0 HR; cbn [log_fast].
  - exists res_p. rewrite Nat.add_0_r. split; [reflexivity|]. split; [exact Wr|]. split; assumption.
  - rewrite rem2_even.
    set (sg := (if Nat.even (S j) then -1 else 1)%Z).
    destruct (pdiv_q_ok (pmul_q monom (qZ sg)) (qZ (Z.of_nat (S j)))) as (t & Et & Wt & Dt);
      [auto with wf|unfold qZ, Qeq; simpl; lia|].
    rewrite Et. cbn [bind].
    assert (Dt' : den t =p (pC (/ qZ (Z.of_nat (S j)) * qZ sg) * xpow (S j))%ps).
    { rewrite Dt, (den_pmul_q _ _ Wm), Dm. rewrite <- !pC_mul, pmul_assoc, pC_mulC. reflexivity. }
    assert (Hc : / qZ (Z.of_nat (S j)) * qZ sg * qnat (S j) == - sgn (S j)).
    { change (qZ (Z.of_nat (S j))) with (qnat (S j)). assert (N0 := qnat_S_neq0 j).
      unfold sg, sgn, qZ. destruct (Nat.even (S j)); cbv match; field; exact N0. }
    replace (Z.of_nat (S j) + 1)%Z with (Z.of_nat (S (S j))) by lia.
    destruct (IHcnt (S j) (pmul_assign monom pvar) (padd res_p t)) as (r & E & W & R0' & HR').
    + rewrite pmul_assign_pvar. auto with wf.
    + auto with wf.
    + rewrite pmul_assign_pvar. rewrite den_pmul_full by auto with wf.
      rewrite Dm, den_pvar. apply xpow_mul_X.
    + rewrite (den_padd _ _ O). unfold padd_s. rewrite R0, (Dt' O), pmul_coef0.
      change (xpow (S j) O) with 0. ring.
    + rewrite den_padd, pD_add, Dt', pD_xpow, Hc.
      transitivity (pD (den res_p) * (pX + p1) + pC (- sgn (S j)) * (xpow j * pX + xpow j))%ps; [ring|].
      rewrite HR, xpow_mul_X, (sgn_S (S j)), <- !pC_opp. ring.
    + exists r. split; [exact E|]. replace (j + S cnt)%nat with (S j + cnt)%nat by lia.
      split; [exact W|]. split; assumption.
Qed.

Theorem log_spec s prec :
  wf s -> coef s 0 == 1 -> (0 < prec < 2147483648)%N ->
  exists r, series_log s prec = Ok r /\ wf r /\ den r O == 0 /\
            eqn (N.to_nat prec - 1) (pD (den r) * den s)%ps (pD (den s)).
Proof.
  intros Ws H1 Hp. unfold series_log.
  destruct (peqb s (pint 1)) eqn:E1.
  - exists []. split; [reflexivity|]. split; [apply wf_nil|]. split; [reflexivity|].
    apply peq_eqn. rewrite (peqb_den _ _ E1), den_pint, den_nil.
    rewrite (pD_C (inject_Z 1)), pD_0. ring.
  - destruct (peqb s (padd pvar (pint 1))) eqn:E2.
    + assert (Ds : den s =p (pX + p1)%ps).
      { rewrite (peqb_den _ _ E2), den_padd, den_pvar, den_pint_1. reflexivity. }
      destruct (log_fast_ok (N.to_nat (prec - 1)) 0 pvar []) as (r & E & W & R0 & HR).
      * apply wf_pvar.
      * apply wf_nil.
      * rewrite den_pvar. intros [|[|n]]; reflexivity.
      * reflexivity.
      * assert (X0 : xpow 0 =p p1) by (intros [|n]; reflexivity).
        assert (S1 : pC (sgn 1) =p (- p1)%ps) by (intros [|n]; reflexivity).
        rewrite den_nil, pD_0, X0, S1. ring.
      * exists r. split; [exact E|]. split; [exact W|]. split; [exact R0|].
        assert (E3 : pD (pX + p1)%ps =p p1) by (rewrite pD_add, pD_pX, (pD_C 1); ring).
        rewrite Ds, E3, HR.
        (* the remainder x^(prec - 1) lies beyond x^(prec - 2) *)
        intros k Hk. unfold padd_s. rewrite (pC_mul _ _ k). unfold pscale, xpow.
        destruct (Nat.eqb_spec k (0 + N.to_nat (prec - 1))); [lia|ring].
    + assert (H0 : ~ coef s 0 == 0) by (rewrite H1; discriminate).
      rewrite pred32_small by lia.
      destruct (quot_int_ok s s prec (prec - 1) (den s) Ws Ws) as (iv & r & Ei & E & Wr & R0 & HR);
        [lia|exact H0|reflexivity|].
      rewrite Ei. cbn [bind]. rewrite E. cbn [bind].
      assert (Hc : Qeq_bool (find_cf s 0) 1 = true).
      { apply Qeq_bool_iff. rewrite find_cf_coef by apply Ws. exact H1. }
      rewrite Hc. exists r. split; [reflexivity|]. split; [exact Wr|]. split; [exact R0|].
      replace (N.to_nat prec - 1)%nat with (N.to_nat (prec - 1)) by lia. exact HR.
Qed.

Lemma ppow2_full s m : wf s -> coef s 0 == 0 -> (m < 2147483648)%N ->
  exists s2, ppow s 2 m = Ok s2 /\ wf s2 /\ eqn (N.to_nat m) (den s2) (den s * den s)%ps /\
             den s2 O == 0.
Proof.
  intros Ws H0 Hm. destruct (ppow2_ok s m Ws Hm) as (r & E & W & H).
  exists r. split; [exact E|]. split; [exact W|]. split; [exact H|].
  cbn [ppow ppow_pos] in E. inversion E as [Er]. clear E.
  assert (Wss : wf (pmul s s m)) by auto with wf.
  rewrite (den_pmul (pmul s s m) (pint 1) m Wss (wf_pint 1) Hm O).
  unfold trunc. destruct (0 <? N.to_nat m)%nat; [|reflexivity].
  rewrite pmul_coef0.
  rewrite (den_pmul s s m Ws Ws Hm O).
  unfold trunc. destruct (0 <? N.to_nat m)%nat; [|ring].
  rewrite pmul_coef0. change (den s O) with (coef s 0). rewrite H0. ring.
Qed.

(* the units 1 + s^2 and 1 - s^2 as the model computes them *)
Lemma one_add_sq_ok s m : wf s -> coef s 0 == 0 -> (m < 2147483648)%N ->
  exists s2, ppow s 2 m = Ok s2 /\ wf (padd s2 (pint 1)) /\ coef (padd s2 (pint 1)) 0 == 1 /\
             eqn (N.to_nat m) (den (padd s2 (pint 1))) (p1 + den s * den s)%ps.
Proof.
  intros Ws H0 Hm. destruct (ppow2_full s m Ws H0 Hm) as (s2 & E2 & W2 & H2 & Z2).
  exists s2. split; [exact E2|]. split; [auto with wf|].
  assert (D : den (padd s2 (pint 1)) =p (p1 + den s2)%ps) by (rewrite den_padd, den_pint_1; ring).
  split; [|rewrite D, H2; reflexivity].
  change (coef (padd s2 (pint 1)) 0) with (den (padd s2 (pint 1)) O). rewrite (D O). unfold padd_s. rewrite Z2.
  reflexivity.
Qed.

Lemma one_sub_sq_ok s m : wf s -> coef s 0 == 0 -> (m < 2147483648)%N ->
  exists s2, ppow s 2 m = Ok s2 /\ wf (psub (pint 1) s2) /\ coef (psub (pint 1) s2) 0 == 1 /\
             eqn (N.to_nat m) (den (psub (pint 1) s2)) (p1 - den s * den s)%ps.
Proof.
  intros Ws H0 Hm. destruct (ppow2_full s m Ws H0 Hm) as (s2 & E2 & W2 & H2 & Z2).
  exists s2. split; [exact E2|]. split; [auto with wf|].
  assert (D : den (psub (pint 1) s2) =p (p1 - den s2)%ps) by (rewrite den_psub, den_pint_1; reflexivity).
  split; [|rewrite D, H2; reflexivity].
  change (coef (psub (pint 1) s2) 0) with (den (psub (pint 1) s2) O). rewrite (D O). unfold psub_s. rewrite Z2.
  reflexivity.
Qed.

Theorem atan_spec_general s prec :
  wf s -> coef s 0 == 0 -> (0 < prec < 2147483648)%N -> peqb s pvar = false ->
  exists r, series_atan s prec = Ok r /\ wf r /\ den r O == 0 /\
            eqn (N.to_nat prec - 1) (pD (den r) * (p1 + den s * den s))%ps (pD (den s)).
Proof.
  intros Ws H0 Hp Hf. unfold series_atan.
  destruct (peqb s []) eqn:E0.
  - exists []. split; [reflexivity|]. split; [apply wf_nil|]. split; [reflexivity|].
    apply peq_eqn. rewrite (peqb_den _ _ E0), den_nil.
    rewrite pD_0. ring.
  - rewrite Hf. rewrite pred32_small by lia.
    destruct (one_add_sq_ok s (prec - 1) Ws H0) as (s2 & E2 & Wp & Hp0 & Dp); [lia|].
    rewrite E2. cbn [bind].
    destruct (quot_int_ok s _ (prec - 1) (prec - 1) _ Ws Wp ltac:(lia) (one_neq0 _ Hp0) Dp)
      as (ip & r & Ei & E & Wr & R0 & HR).
    rewrite Ei. cbn [bind]. rewrite E. cbn [bind].
    rewrite (find_cf_0 s Ws H0). cbv match.
    exists r. split; [reflexivity|]. split; [exact Wr|]. split; [exact R0|].
    replace (N.to_nat prec - 1)%nat with (N.to_nat (prec - 1)) by lia. exact HR.
Qed.

Theorem atanh_spec s prec :
  wf s -> coef s 0 == 0 -> (0 < prec < 2147483648)%N ->
  exists r, series_atanh s prec = Ok r /\ wf r /\ den r O == 0 /\
            eqn (N.to_nat prec - 1) (pD (den r) * (p1 - den s * den s))%ps (pD (den s)).
Proof.
  intros Ws H0 Hp. unfold series_atanh.
  rewrite pred32_small by lia.
  destruct (one_sub_sq_ok s (prec - 1) Ws H0) as (s2 & E2 & Wp & Hp0 & Dp); [lia|].
  rewrite E2. cbn [bind].
  destruct (quot_int_ok s _ (prec - 1) (prec - 1) _ Ws Wp ltac:(lia) (one_neq0 _ Hp0) Dp)
    as (ip & r & Ei & E & Wr & R0 & HR).
  rewrite Ei. cbn [bind]. rewrite E. cbn [bind].
  rewrite (find_cf_0 s Ws H0). cbv match.
  exists r. split; [reflexivity|]. split; [exact Wr|]. split; [exact R0|].
  replace (N.to_nat prec - 1)%nat with (N.to_nat (prec - 1)) by lia. exact HR.
Qed.
