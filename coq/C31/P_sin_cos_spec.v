(* C31 obligation: series_sin and series_cos (the loops _series_sin / _series_cos summing the
   Maclaurin polynomials in s with truncated products) solve the coupled problem
   sin(0) = 0, cos(0) = 1, sin' = s' cos, cos' = - s' sin  modulo x^(prec-1); by uniqueness their
   coefficients below x^prec are those of sin(s), cos(s). *)
From Coq Require Import QArith List ZArith NArith.
From SE Require Import C31.VisitorModel.
From SE Require Import C31.SeriesSpec C31.Invert C31.SinCos C31.Compose.
Local Open Scope Q_scope.
Theorem C31_sin_cos_spec :
  forall (s : poly) (prec : N),
    wfb s = true -> const0 s = true -> prec_ok prec = true ->
    exists rs rc, series_sin s prec = Ok rs /\ series_cos s prec = Ok rc /\
      wf rs /\ wf rc /\ den rs O == 0 /\ den rc O == 1 /\
      eqn (N.to_nat prec - 1) (pD (den rs)) (pD (den s) * den rc)%ps /\
      eqn (N.to_nat prec - 1) (pD (den rc)) (- (pD (den s) * den rs))%ps.
Proof. exact (guarded0 _ sin_cos_spec). Qed.
Theorem C31_sin_cos_taylor :
  forall (s : poly) (prec : N) (rs rc : poly) (ys yc : ps),
    wfb s = true -> const0 s = true -> prec_ok prec = true ->
    series_sin s prec = Ok rs -> series_cos s prec = Ok rc ->
    ys O == 0 -> yc O == 1 ->
    pD ys =p (pD (den s) * yc)%ps -> pD yc =p (- (pD (den s) * ys))%ps ->
    eqn (N.to_nat prec) (den rs) ys /\ eqn (N.to_nat prec) (den rc) yc.
Proof.
  intros s prec rs rc ys yc W H Hp Es Ec Ys0 Yc0 Yds Ydc. destruct (guards0 s prec W H Hp) as (Ws & S0 & Hlt).
  destruct (sin_cos_compose s prec rs rc (den s) ys yc Ws S0 Hlt Es Ec (eqn_refl _ _) Ys0 Yc0 Yds Ydc) as [[_ A] [_ B]].
  split; assumption.
Qed.
Print Assumptions C31_sin_cos_spec.
Print Assumptions C31_sin_cos_taylor.
