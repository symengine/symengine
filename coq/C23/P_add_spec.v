(* C23 obligation: operator+= on two polynomials: canonical result equal to the sum in (Z/p)[x], for all canonical operands of any lengths. *)
From SE Require Import C23.GFSpec C23.GFProofsRing.
Local Open Scope Z_scope.
Theorem C23_add_spec :
  forall (p : Z) (a b : gf), 0 < p -> wf p a -> wf p b ->
    wf p (gf_add p a b) /\ peqm p (gf_add p a b) (padd a b).
Proof. exact gf_add_spec. Qed.
Print Assumptions C23_add_spec.
