(* C23: the hypotheses of the theorems are met by concrete non-trivial inputs, and the model
   computes the expected values on them (evaluated by the kernel). *)
From SE Require Import C23.GFSpec C23.GFPolyLemmas C23.GFArith C23.GFProofsRing C23.GFProofsDiv C23.GFProofsGcd.
From Coq Require Import Lia.
Local Open Scope Z_scope.

Example C23_prime_7 : prime 7.
Proof.
  apply prime_intro; [lia|]. intros n Hn.
  assert (H : n = 1 \/ n = 2 \/ n = 3 \/ n = 4 \/ n = 5 \/ n = 6) by lia.
  destruct H as [H|[H|[H|[H|[H|H]]]]]; subst n; apply Zgcd_1_rel_prime; reflexivity.
Qed.

Definition wfb (p : Z) (l : list Z) : bool :=
  forallb (fun c => (0 <=? c) && (c <? p)) l && negb (last l 1 =? 0).
Lemma wfb_wf p l : wfb p l = true -> wf p l.
Proof.
  unfold wfb. intros H. apply andb_prop in H. destruct H as [H1 H2]. split.
  - apply Forall_forall. intros c Hc. rewrite forallb_forall in H1. specialize (H1 c Hc). lia.
  - unfold stripped. intros E. rewrite E in H2. discriminate.
Qed.

(* x^6 + x^5 + 2x^4 + 3x^3 + 4x^2 + 5x + 6  divided by  x^3 + x^2 + x + 1  over GF(7) *)
Example C23_div_example :
  wf 7 [6; 5; 4; 3; 2; 1; 1] /\ wf 7 [1; 1; 1; 1] /\ [1; 1; 1; 1] <> [] /\
  gf_div 7 [6; 5; 4; 3; 2; 1; 1] [1; 1; 1; 1] = Ok ([1; 1; 0; 1], [5; 3; 2]).
Proof.
  split; [apply wfb_wf; reflexivity|]. split; [apply wfb_wf; reflexivity|].
  split; [congruence|vm_compute; reflexivity].
Qed.

(* gcd((x+1)^2 (x+3), (x+1)(x+5)) = x + 1, lcm, powers and modular powers over GF(7) *)
Example C23_gcd_pow_example :
  gf_gcd 7 [3; 0; 5; 1] [5; 6; 1] = Ok [1; 1] /\
  gf_lcm 7 [3; 0; 5; 1] [5; 6; 1] = Ok [1; 3; 4; 3; 1] /\
  gf_pow 7 [1; 1] 7 = Ok [1; 0; 0; 0; 0; 0; 0; 1] /\
  gf_pow_mod 7 [1; 1; 1; 1] [3; 1] 100 = Ok [0; 5] /\
  wf 7 [3; 0; 5; 1] /\ wf 7 [5; 6; 1].
Proof.
  split; [vm_compute; reflexivity|]. split; [vm_compute; reflexivity|].
  split; [vm_compute; reflexivity|]. split; [vm_compute; reflexivity|].
  split; apply wfb_wf; reflexivity.
Qed.

(* the two inputs on which the library used to be wrong (repaired in bc03f74, da7c58d) *)
Example C23_repaired_examples :
  gf_add_int 5 [] 3 = [3] /\
  gf_compose_mod 5 [1; 0; 0; 1] [1; 0; 1] [] = Ok [1] /\
  gf_eval 5 [0; 1] (-1) = 4.
Proof. repeat split; vm_compute; reflexivity. Qed.
Print Assumptions C23_div_example.
Print Assumptions C23_gcd_pow_example.
