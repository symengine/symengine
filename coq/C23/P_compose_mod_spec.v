(* C23 obligation: gf_compose_mod: canonical result congruent to g(h) modulo m in (Z/p)[x] for ALL g, h; reduced when g is not constant. *)
From SE Require Import C23.GFSpec C23.GFProofsGcd.
Local Open Scope Z_scope.
Theorem C23_compose_mod_spec :
  forall (p : Z) (m g h : gf), prime p -> wf p m -> m <> [] -> wf p g -> wf p h ->
    exists c, gf_compose_mod p m g h = Ok c /\ wf p c /\ pcong p m c (pcomp g h) /\
      ((2 <= length g)%nat -> (length c < length m)%nat).
Proof. exact gf_compose_mod_spec. Qed.
Print Assumptions C23_compose_mod_spec.
