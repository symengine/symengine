(* C23 obligation: operator/= by a divisor of f is the exact quotient. *)
From SE Require Import C23.GFSpec C23.GFProofsGcd.
Local Open Scope Z_scope.
Theorem C23_quo_exact :
  forall (p : Z) (f g : gf), prime p -> wf p f -> wf p g -> g <> [] -> pdvd p g f ->
    exists q, gf_quo p f g = Ok q /\ wf p q /\ peqm p f (pmul q g).
Proof. exact gf_quo_exact. Qed.
Print Assumptions C23_quo_exact.
