(* C23 obligation: operator*=(integer): canonical, equal to the scalar multiple. *)
From SE Require Import C23.GFSpec C23.GFProofsRing.
Local Open Scope Z_scope.
Theorem C23_mul_int_spec :
  forall (p : Z) (a : gf) (c : Z), 0 < p -> wf p a ->
    wf p (gf_mul_int p a c) /\ peqm p (gf_mul_int p a c) (pscale c a).
Proof. exact gf_mul_int_spec. Qed.
Print Assumptions C23_mul_int_spec.
