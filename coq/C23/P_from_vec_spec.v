(* C23 obligation: GaloisFieldDict::from_vec (mp_fdiv_r on every entry, then gf_istrip) returns the canonical representative of its argument; the integer constructor likewise. *)
From SE Require Import C23.GFSpec C23.GFProofsRing.
Local Open Scope Z_scope.
Theorem C23_from_vec_spec :
  forall (p : Z) (v : list Z) (i : Z), 0 < p ->
    wf p (from_vec v p) /\ peqm p (from_vec v p) v /\
    wf p (gf_of_int i p) /\ peqm p (gf_of_int i p) [i].
Proof. exact (fun p v i Hp => conj (from_vec_wf p v Hp) (conj (from_vec_peqm p v Hp) (conj (gf_of_int_wf p i Hp) (gf_of_int_peqm p i Hp)))). Qed.
Print Assumptions C23_from_vec_spec.
