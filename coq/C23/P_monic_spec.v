(* C23 obligation: gf_monic: reports the leading coefficient and returns the canonical monic associate. *)
From SE Require Import C23.GFSpec C23.GFProofsRing.
Local Open Scope Z_scope.
Theorem C23_monic_spec :
  forall (p : Z) (a : gf), prime p -> wf p a -> a <> [] ->
    let '(lc, m) := gf_monic p a in
    lc = last a 0 /\ wf p m /\ monic m /\ length m = length a /\
    peqm p a (pscale lc m) /\ peqm p m (pscale (zinvert lc p) a).
Proof. exact gf_monic_spec. Qed.
Print Assumptions C23_monic_spec.
