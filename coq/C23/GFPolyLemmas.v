(* C23 -- lemmas about the schoolbook polynomials of GFPolyDefs.v:
   coefficients, the two equalities (peq, peqm), ring laws (with a registered
   setoid ring for [peq]), canonical forms, divisibility in (Z/p)[x], and
   evaluation / composition / derivative.  No axioms. *)
From SE Require Export C23.GFPolyDefs.
From Coq Require Import Lia Znumtheory Setoid Morphisms Ring.
Local Open Scope Z_scope.
Local Arguments Z.mul : simpl never.
Local Arguments Z.add : simpl never.
Local Arguments Z.of_nat : simpl never.

Lemma coef_nil k : coef [] k = 0.
Proof. unfold coef. destruct k; reflexivity. Qed.

Lemma coef_cons_O x a : coef (x :: a) 0 = x.
Proof. reflexivity. Qed.

Lemma coef_cons_S x a k : coef (x :: a) (S k) = coef a k.
Proof. reflexivity. Qed.

Lemma coef_overflow a k : (length a <= k)%nat -> coef a k = 0.
Proof. intros H. unfold coef. apply nth_overflow; exact H. Qed.

Lemma last_coef a : last a 0 = coef a (length a - 1).
Proof.
  induction a as [|x a IH]; [reflexivity|].
  destruct a as [|y a]; [reflexivity|].
  change (last (x :: y :: a) 0) with (last (y :: a) 0). rewrite IH.
  cbn [length]. rewrite !Nat.sub_succ, !Nat.sub_0_r. reflexivity.
Qed.

Lemma coef_padd a b k : coef (padd a b) k = coef a k + coef b k.
Proof.
  revert b k. induction a as [|x a IH]; intros b k.
  - cbn [padd]. rewrite coef_nil. lia.
  - destruct b as [|y b].
    + cbn [padd]. rewrite coef_nil. lia.
    + cbn [padd]. destruct k as [|k].
      * rewrite !coef_cons_O. reflexivity.
      * rewrite !coef_cons_S. apply IH.
Qed.

Lemma coef_pscale c a k : coef (pscale c a) k = c * coef a k.
Proof.
  revert k. induction a as [|x a IH]; intros k.
  - cbn [pscale map]. rewrite coef_nil. lia.
  - cbn [pscale map]. destruct k as [|k].
    + reflexivity.
    + rewrite !coef_cons_S. apply IH.
Qed.

Lemma coef_popp a k : coef (popp a) k = - coef a k.
Proof. unfold popp. rewrite coef_pscale. lia. Qed.

Lemma coef_psub a b k : coef (psub a b) k = coef a k - coef b k.
Proof. unfold psub. rewrite coef_padd, coef_popp. lia. Qed.

Global Hint Rewrite coef_nil coef_cons_O coef_cons_S coef_padd coef_pscale coef_popp coef_psub : coef.

Lemma coef_repeat0 n k : coef (repeat 0 n) k = 0.
Proof.
  revert k. induction n as [|n IH]; intros k.
  - apply coef_nil.
  - cbn [repeat]. destruct k; [reflexivity|]. rewrite coef_cons_S. apply IH.
Qed.

Lemma coef_app_l a b k : (k < length a)%nat -> coef (a ++ b) k = coef a k.
Proof. intros H. unfold coef. apply app_nth1; exact H. Qed.

Lemma coef_app_r a b k : (length a <= k)%nat -> coef (a ++ b) k = coef b (k - length a).
Proof. intros H. unfold coef. apply app_nth2; lia. Qed.

Lemma coef_pshift n a k :
  coef (pshift n a) k = if (k <? n)%nat then 0 else coef a (k - n).
Proof.
  unfold pshift. destruct (Nat.ltb_spec k n) as [H|H].
  - rewrite coef_app_l by (rewrite repeat_length; exact H). apply coef_repeat0.
  - rewrite coef_app_r by (rewrite repeat_length; exact H).
    rewrite repeat_length. reflexivity.
Qed.

Lemma coef_skipn m : forall (l : list Z) i, coef (skipn m l) i = coef l (m + i).
Proof.
  induction m as [|m IH]; intros [|x l] i; try reflexivity.
  - rewrite !coef_nil. reflexivity.
  - apply IH.
Qed.

Lemma coef_firstn m : forall (l : list Z) i,
  coef (firstn m l) i = if (i <? m)%nat then coef l i else 0.
Proof.
  induction m as [|m IH]; intros [|x l] [|i]; cbn [firstn]; rewrite ?coef_nil; try reflexivity.
  - destruct (S i <? S m)%nat; reflexivity.
  - rewrite !coef_cons_S. apply IH.
Qed.

Lemma zsum_ext n F G : (forall j, (j < n)%nat -> F j = G j) -> zsum n F = zsum n G.
Proof.
  induction n as [|n IH]; intros H; [reflexivity|].
  cbn [zsum]. rewrite IH by (intros; apply H; lia). rewrite H by lia. reflexivity.
Qed.

Lemma zsum_0 n F : (forall j, (j < n)%nat -> F j = 0) -> zsum n F = 0.
Proof.
  induction n as [|n IH]; intros H; [reflexivity|].
  cbn [zsum]. rewrite IH by (intros; apply H; lia). rewrite H by lia. reflexivity.
Qed.

Lemma zsum_add n F G : zsum n (fun j => F j + G j) = zsum n F + zsum n G.
Proof. induction n as [|n IH]; [reflexivity|]. cbn [zsum]. rewrite IH. ring. Qed.

Lemma zsum_scale c n F : c * zsum n F = zsum n (fun j => c * F j).
Proof. induction n as [|n IH]; cbn [zsum]; [ring|]. rewrite <- IH. ring. Qed.

Lemma zsum_scale_r c n F : zsum n F * c = zsum n (fun j => F j * c).
Proof. induction n as [|n IH]; cbn [zsum]; [ring|]. rewrite <- IH. ring. Qed.

Lemma zsum_opp n F : - zsum n F = zsum n (fun j => - F j).
Proof. induction n as [|n IH]; cbn [zsum]; [ring|]. rewrite <- IH. ring. Qed.

Lemma zsum_split n m F : zsum (n + m) F = zsum n F + zsum m (fun j => F (n + j)%nat).
Proof.
  induction m as [|m IH].
  - rewrite Nat.add_0_r. cbn [zsum]. ring.
  - rewrite Nat.add_succ_r. cbn [zsum]. rewrite IH. ring.
Qed.

Lemma zsum_S_l n F : zsum (S n) F = F O + zsum n (fun j => F (S j)).
Proof.
  change (S n) with (1 + n)%nat. rewrite zsum_split. cbn [zsum].
  rewrite Z.add_0_l. reflexivity.
Qed.

Lemma zsum_single n F i :
  (i < n)%nat -> (forall j, (j < n)%nat -> j <> i -> F j = 0) -> zsum n F = F i.
Proof.
  intros Hi H.
  assert (E : n = (i + S (n - S i))%nat) by lia.
  remember (n - S i)%nat as m eqn:Em. clear Em. subst n.
  rewrite zsum_split, zsum_S_l.
  rewrite (zsum_0 i) by (intros; apply H; lia).
  rewrite (zsum_0 m) by (intros; apply H; lia).
  rewrite Nat.add_0_r. ring.
Qed.

(* a sum whose terms vanish outside the window [lb, lb + cnt) *)
Lemma zsum_window n lb cnt F : (lb + cnt <= n)%nat ->
  (forall j, (j < n)%nat -> (j < lb \/ lb + cnt <= j)%nat -> F j = 0) ->
  zsum n F = zsum cnt (fun t => F (lb + t)%nat).
Proof.
  intros Hle H0.
  replace n with (lb + (cnt + (n - lb - cnt)))%nat by lia.
  rewrite zsum_split, zsum_split.
  rewrite (zsum_0 lb) by (intros j Hj; apply H0; lia).
  rewrite (zsum_0 (n - lb - cnt)) by (intros j Hj; apply H0; lia).
  lia.
Qed.

Lemma zsum_rev n F : zsum n F = zsum n (fun j => F (n - 1 - j)%nat).
Proof.
  revert F. induction n as [|n IH]; intros F; [reflexivity|].
  rewrite zsum_S_l. cbn [zsum]. rewrite (IH (fun j => F (S j))).
  replace (S n - 1 - n)%nat with O by lia.
  rewrite Z.add_comm. f_equal.
  apply zsum_ext. intros j Hj. f_equal. lia.
Qed.

Lemma zsum_zsum_swap n m (F : nat -> nat -> Z) :
  zsum n (fun i => zsum m (fun j => F i j)) = zsum m (fun j => zsum n (fun i => F i j)).
Proof.
  induction n as [|n IH]; cbn [zsum].
  - symmetry. apply zsum_0. reflexivity.
  - rewrite IH, <- zsum_add. reflexivity.
Qed.

(* Congruence of integers modulo p is [Zdiv.eqm p], with the library's [Zplus_eqm], [Zmult_eqm], ... *)
Lemma modeq_sub p x x' y y' :
  x mod p = x' mod p -> y mod p = y' mod p -> (x - y) mod p = (x' - y') mod p.
Proof. intros H1 H2. exact (Zminus_eqm p x x' H1 y y' H2). Qed.

Lemma modeq_pow p x x' n : x mod p = x' mod p -> (x ^ Z.of_nat n) mod p = (x' ^ Z.of_nat n) mod p.
Proof.
  intros H. induction n as [|n IH]; [reflexivity|].
  rewrite Nat2Z.inj_succ, !Z.pow_succ_r by lia. apply Zmult_eqm; assumption.
Qed.

Lemma zsum_mod p n F G :
  (forall j, (j < n)%nat -> F j mod p = G j mod p) -> zsum n F mod p = zsum n G mod p.
Proof.
  induction n as [|n IH]; intros H; [reflexivity|].
  cbn [zsum]. apply Zplus_eqm; [apply IH; intros; apply H; lia | apply H; lia].
Qed.

Lemma length_padd a b : length (padd a b) = Nat.max (length a) (length b).
Proof.
  revert b. induction a as [|x a IH]; intros b; [reflexivity|].
  destruct b as [|y b]; [reflexivity|]. cbn [padd length]. rewrite IH. reflexivity.
Qed.

Lemma length_pscale c a : length (pscale c a) = length a.
Proof. unfold pscale. apply map_length. Qed.

Lemma length_popp a : length (popp a) = length a.
Proof. apply length_pscale. Qed.

Lemma length_psub a b : length (psub a b) = Nat.max (length a) (length b).
Proof. unfold psub. rewrite length_padd, length_popp. reflexivity. Qed.

Lemma length_pshift n a : length (pshift n a) = (n + length a)%nat.
Proof. unfold pshift. rewrite app_length, repeat_length. reflexivity. Qed.

Lemma length_nonnil {A} (a : list A) : a <> [] -> (0 < length a)%nat.
Proof. destruct a; [congruence|cbn [length]; lia]. Qed.

Lemma length_pmul a b :
  a <> [] -> b <> [] -> length (pmul a b) = (length a + length b - 1)%nat.
Proof.
  intros Ha Hb. pose proof (length_nonnil b Hb) as Lb.
  induction a as [|x a IH]; [congruence|].
  cbn [pmul]. rewrite length_padd, length_pscale. cbn [length].
  destruct a as [|y a].
  - cbn [pmul length]. lia.
  - rewrite IH by congruence. cbn [length]. lia.
Qed.

Lemma length_pmul_le a b : (length (pmul a b) <= length a + length b)%nat.
Proof.
  induction a as [|x a IH]; [cbn; lia|].
  cbn [pmul]. rewrite length_padd, length_pscale. cbn [length] in *. lia.
Qed.

Lemma length_pdiff_from i a : length (pdiff_from i a) = length a.
Proof.
  revert i. induction a as [|x a IH]; intros i; [reflexivity|].
  cbn [pdiff_from length]. rewrite IH. reflexivity.
Qed.

Lemma length_pdiff a : length (pdiff a) = (length a - 1)%nat.
Proof.
  unfold pdiff. rewrite length_pdiff_from. destruct a; cbn [tl length]; lia.
Qed.

Lemma coef_pmul a b k :
  coef (pmul a b) k = zsum (S k) (fun j => coef a j * coef b (k - j)).
Proof.
  revert k. induction a as [|x a IH]; intros k.
  - cbn [pmul]. rewrite coef_nil. symmetry. apply zsum_0.
    intros j _. rewrite coef_nil. ring.
  - cbn [pmul]. rewrite coef_padd, coef_pscale, zsum_S_l.
    rewrite coef_cons_O, Nat.sub_0_r. f_equal.
    destruct k as [|k].
    + reflexivity.
    + rewrite coef_cons_S, IH. apply zsum_ext. intros j _.
      rewrite coef_cons_S. reflexivity.
Qed.

Lemma coef_pmul_top a b :
  a <> [] -> b <> [] ->
  coef (pmul a b) (length a + length b - 2) = last a 0 * last b 0.
Proof.
  intros Ha Hb. pose proof (length_nonnil a Ha). pose proof (length_nonnil b Hb).
  rewrite coef_pmul, !last_coef.
  rewrite (zsum_single _ _ (length a - 1)%nat).
  - do 2 f_equal. lia.
  - lia.
  - intros j Hj Hne.
    destruct (Nat.lt_ge_cases j (length a - 1)) as [Hlt|Hge].
    + rewrite (coef_overflow b) by lia. ring.
    + rewrite (coef_overflow a) by lia. ring.
Qed.

Lemma coef_pdiff_from i a k :
  coef (pdiff_from i a) k = (i + Z.of_nat k) * coef a k.
Proof.
  revert i k. induction a as [|x a IH]; intros i k.
  - cbn [pdiff_from]. rewrite coef_nil. ring.
  - cbn [pdiff_from]. destruct k as [|k].
    + rewrite !coef_cons_O. f_equal. lia.
    + rewrite !coef_cons_S, IH. f_equal. lia.
Qed.

Lemma coef_tl a k : coef (tl a) k = coef a (S k).
Proof. destruct a; [rewrite !coef_nil; reflexivity|reflexivity]. Qed.

Lemma coef_pdiff a k : coef (pdiff a) k = Z.of_nat (S k) * coef a (S k).
Proof.
  unfold pdiff. rewrite coef_pdiff_from, coef_tl. f_equal. lia.
Qed.

Global Instance peq_Equivalence : Equivalence peq.
Proof.
  split; [intros a k; reflexivity|intros a b H k; symmetry; apply H|].
  intros a b c H1 H2 k. rewrite H1. apply H2.
Qed.

Global Instance peqm_Equivalence p : Equivalence (peqm p).
Proof.
  split; [intros a k; reflexivity|intros a b H k; symmetry; apply H|].
  intros a b c H1 H2 k. rewrite H1. apply H2.
Qed.

Lemma peq_peqm p a b : peq a b -> peqm p a b.
Proof. intros H k. rewrite H. reflexivity. Qed.

Global Instance peq_peqm_subrelation p : subrelation peq (peqm p).
Proof. intros a b. apply peq_peqm. Qed.

(* Z[x] is (Z/0)[x]: a morphism for every [peqm p] is one for [peq] *)
Lemma peq_peqm0 a b : peq a b <-> peqm 0 a b.
Proof. unfold peq, peqm. setoid_rewrite Zmod_0_r. reflexivity. Qed.

Lemma peq_morphism1 (F : list Z -> list Z) :
  Proper (peqm 0 ==> peqm 0) F -> Proper (peq ==> peq) F.
Proof. intros HF a a' Ha. apply peq_peqm0, HF, peq_peqm0, Ha. Qed.

Lemma peq_morphism2 (F : list Z -> list Z -> list Z) :
  Proper (peqm 0 ==> peqm 0 ==> peqm 0) F -> Proper (peq ==> peq ==> peq) F.
Proof. intros HF a a' Ha b b' Hb. apply peq_peqm0, HF; apply peq_peqm0; assumption. Qed.

Lemma peq_eq a b : a = b -> peq a b.
Proof. intros ->. reflexivity. Qed.

Lemma peqm_cons p x y a b :
  x mod p = y mod p -> peqm p a b -> peqm p (x :: a) (y :: b).
Proof. intros Hx H [|k]; [exact Hx|]. rewrite !coef_cons_S. apply H. Qed.

Lemma peq_cons x y a b : x = y -> peq a b -> peq (x :: a) (y :: b).
Proof. intros -> H [|k]; [reflexivity|]. rewrite !coef_cons_S. apply H. Qed.

Lemma peq_cons_inv x y a b : peq (x :: a) (y :: b) -> x = y /\ peq a b.
Proof. intros H. split; [exact (H O)|]. intros k. exact (H (S k)). Qed.

Lemma peqm_cons_inv p x y a b :
  peqm p (x :: a) (y :: b) -> x mod p = y mod p /\ peqm p a b.
Proof. intros H. split; [exact (H O)|]. intros k. exact (H (S k)). Qed.

Lemma peq_cons_nil_inv x a : peq (x :: a) [] -> x = 0 /\ peq a [].
Proof.
  intros H. split; [exact (H O)|]. intros k. rewrite coef_nil.
  specialize (H (S k)). rewrite coef_cons_S, coef_nil in H. exact H.
Qed.

Lemma peqm_cons_nil_inv p x a : peqm p (x :: a) [] -> x mod p = 0 mod p /\ peqm p a [].
Proof.
  intros H. split; [exact (H O)|]. intros k. rewrite coef_nil.
  specialize (H (S k)). rewrite coef_cons_S, coef_nil in H. exact H.
Qed.

Lemma peq_cons_nil x a : x = 0 -> peq a [] -> peq (x :: a) [].
Proof.
  intros -> H [|k]; [reflexivity|]. rewrite coef_cons_S, H, !coef_nil. reflexivity.
Qed.

Lemma peqm_cons_nil p x a : x mod p = 0 mod p -> peqm p a [] -> peqm p (x :: a) [].
Proof.
  intros Hx H [|k]; [exact Hx|]. rewrite coef_cons_S, H, !coef_nil. reflexivity.
Qed.

Lemma peq_0_nil : peq [0] [].
Proof. apply peq_cons_nil; reflexivity. Qed.

Lemma peqm_single p x y : x mod p = y mod p -> peqm p [x] [y].
Proof. intros H. apply peqm_cons; [exact H|reflexivity]. Qed.

Global Instance cons_peq_Proper : Proper (eq ==> peq ==> peq) (@cons Z).
Proof. intros x y Hxy a b Hab. apply peq_cons; assumption. Qed.

Global Instance cons_peqm_Proper p : Proper (eq ==> peqm p ==> peqm p) (@cons Z).
Proof. intros x y Hxy a b Hab. apply peqm_cons; [rewrite Hxy; reflexivity|assumption]. Qed.

Global Instance padd_peqm_Proper p : Proper (peqm p ==> peqm p ==> peqm p) padd.
Proof. intros a a' Ha b b' Hb k. rewrite !coef_padd. apply Zplus_eqm; [apply Ha|apply Hb]. Qed.
Global Instance padd_peq_Proper : Proper (peq ==> peq ==> peq) padd.
Proof. exact (peq_morphism2 padd (padd_peqm_Proper 0)). Qed.

(* scaling respects congruence of the scalar as well *)
Lemma peqm_pscale p c c' a a' :
  c mod p = c' mod p -> peqm p a a' -> peqm p (pscale c a) (pscale c' a').
Proof. intros Hc Ha k. rewrite !coef_pscale. apply Zmult_eqm; [exact Hc|apply Ha]. Qed.

Global Instance pscale_peqm_Proper p : Proper (eq ==> peqm p ==> peqm p) pscale.
Proof. intros c c' <- a a' Ha. apply peqm_pscale; [reflexivity|exact Ha]. Qed.
Global Instance pscale_peq_Proper : Proper (eq ==> peq ==> peq) pscale.
Proof. intros c c' <-. exact (peq_morphism1 (pscale c) (pscale_peqm_Proper 0 c c eq_refl)). Qed.

Global Instance popp_peqm_Proper p : Proper (peqm p ==> peqm p) popp.
Proof. intros a a' Ha. apply pscale_peqm_Proper; [reflexivity|exact Ha]. Qed.
Global Instance popp_peq_Proper : Proper (peq ==> peq) popp.
Proof. exact (peq_morphism1 popp (popp_peqm_Proper 0)). Qed.

Global Instance psub_peqm_Proper p : Proper (peqm p ==> peqm p ==> peqm p) psub.
Proof. intros a a' Ha b b' Hb. unfold psub. rewrite Ha, Hb. reflexivity. Qed.
Global Instance psub_peq_Proper : Proper (peq ==> peq ==> peq) psub.
Proof. exact (peq_morphism2 psub (psub_peqm_Proper 0)). Qed.

Global Instance pmul_peqm_Proper p : Proper (peqm p ==> peqm p ==> peqm p) pmul.
Proof.
  intros a a' Ha b b' Hb k. rewrite !coef_pmul. apply zsum_mod. intros j _.
  apply Zmult_eqm; [apply Ha|apply Hb].
Qed.
Global Instance pmul_peq_Proper : Proper (peq ==> peq ==> peq) pmul.
Proof. exact (peq_morphism2 pmul (pmul_peqm_Proper 0)). Qed.

Global Instance pshift_peqm_Proper p n : Proper (peqm p ==> peqm p) (pshift n).
Proof. intros a a' Ha k. rewrite !coef_pshift. destruct (k <? n)%nat; [reflexivity|apply Ha]. Qed.
Global Instance pshift_peq_Proper n : Proper (peq ==> peq) (pshift n).
Proof. exact (peq_morphism1 (pshift n) (pshift_peqm_Proper 0 n)). Qed.

Global Instance ppow_peqm_Proper p : Proper (peqm p ==> eq ==> peqm p) ppow.
Proof.
  intros a a' Ha n n' <-. induction n as [|n IH]; [reflexivity|].
  cbn [ppow]. rewrite IH, Ha. reflexivity.
Qed.
Global Instance ppow_peq_Proper : Proper (peq ==> eq ==> peq) ppow.
Proof.
  intros a a' Ha n n' <-. revert a a' Ha.
  exact (peq_morphism1 (fun a => ppow a n) (fun a a' Ha => ppow_peqm_Proper 0 a a' Ha n n eq_refl)).
Qed.

Global Instance pdiff_peqm_Proper p : Proper (peqm p ==> peqm p) pdiff.
Proof. intros a a' Ha k. rewrite !coef_pdiff. apply Zmult_eqm; [reflexivity|apply Ha]. Qed.
Global Instance pdiff_peq_Proper : Proper (peq ==> peq) pdiff.
Proof. exact (peq_morphism1 pdiff (pdiff_peqm_Proper 0)). Qed.

Lemma pmul_nil_r a : peq (pmul a []) [].
Proof.
  intros k. rewrite coef_pmul, coef_nil. apply zsum_0. intros j _.
  rewrite coef_nil. ring.
Qed.

Lemma pcomp_peqm_nil p g h : peqm p g [] -> peqm p (pcomp g h) [].
Proof.
  induction g as [|c g IH]; intros H; [reflexivity|].
  apply peqm_cons_nil_inv in H. destruct H as [Hc H].
  cbn [pcomp]. rewrite (IH H), pmul_nil_r.
  cbn [padd]. apply peqm_cons_nil; [exact Hc|reflexivity].
Qed.

Global Instance pcomp_peqm_Proper p : Proper (peqm p ==> peqm p ==> peqm p) pcomp.
Proof.
  intros g g' Hg h h' Hh. revert g' Hg. induction g as [|c g IH]; intros [|c' g'] Hg.
  - reflexivity.
  - symmetry. apply pcomp_peqm_nil. symmetry. exact Hg.
  - apply pcomp_peqm_nil. exact Hg.
  - apply peqm_cons_inv in Hg. destruct Hg as [Hc Hg].
    cbn [pcomp]. rewrite (IH g' Hg), Hh, (peqm_single p c c' Hc). reflexivity.
Qed.

Global Instance pcomp_peq_Proper : Proper (peq ==> peq ==> peq) pcomp.
Proof. exact (peq_morphism2 pcomp (pcomp_peqm_Proper 0)). Qed.

Lemma peqm_map_mod p a : peqm p (map (fun c => c mod p) a) a.
Proof.
  induction a as [|x a IH]; [reflexivity|].
  cbn [map]. apply peqm_cons; [apply Zmod_mod|exact IH].
Qed.

Lemma peq_app_zeros a n : peq (a ++ repeat 0 n) a.
Proof.
  intros k. destruct (Nat.lt_ge_cases k (length a)) as [H|H].
  - apply coef_app_l; exact H.
  - rewrite coef_app_r by exact H. rewrite coef_repeat0.
    symmetry. apply coef_overflow; exact H.
Qed.

Lemma peq_nil_iff a : peq a [] <-> Forall (fun c => c = 0) a.
Proof.
  induction a as [|x a IH]; split; intros H.
  - constructor.
  - reflexivity.
  - apply peq_cons_nil_inv in H. constructor; [tauto|apply IH; tauto].
  - inversion H; subst. apply peq_cons_nil; [reflexivity|apply IH; assumption].
Qed.

Lemma padd_comm a b : peq (padd a b) (padd b a).
Proof. intros k. autorewrite with coef. ring. Qed.

Lemma padd_assoc a b c : peq (padd a (padd b c)) (padd (padd a b) c).
Proof. intros k. autorewrite with coef. ring. Qed.

Lemma padd_nil_l a : peq (padd [] a) a.
Proof. reflexivity. Qed.

Lemma padd_nil_r a : peq (padd a []) a.
Proof. intros k. autorewrite with coef. ring. Qed.

Lemma padd_popp a : peq (padd a (popp a)) [].
Proof. intros k. autorewrite with coef. ring. Qed.

Lemma psub_def a b : peq (psub a b) (padd a (popp b)).
Proof. reflexivity. Qed.

Lemma pscale_pscale c d a : peq (pscale c (pscale d a)) (pscale (c * d) a).
Proof. intros k. autorewrite with coef. ring. Qed.

Lemma pscale_padd c a b : peq (pscale c (padd a b)) (padd (pscale c a) (pscale c b)).
Proof. intros k. autorewrite with coef. ring. Qed.

Lemma pscale_1 a : peq (pscale 1 a) a.
Proof. intros k. autorewrite with coef. ring. Qed.

Lemma pscale_0 a : peq (pscale 0 a) [].
Proof. intros k. autorewrite with coef. ring. Qed.

Lemma pscale_nil c : pscale c [] = [].
Proof. reflexivity. Qed.

Lemma pscale_add_l c d a : peq (pscale (c + d) a) (padd (pscale c a) (pscale d a)).
Proof. intros k. autorewrite with coef. ring. Qed.

Lemma popp_as_pscale a : popp a = pscale (-1) a.
Proof. reflexivity. Qed.

Lemma pmul_nil_l a : peq (pmul [] a) [].
Proof. reflexivity. Qed.

Lemma pmul_cons_l x a b : pmul (x :: a) b = padd (pscale x b) (0 :: pmul a b).
Proof. reflexivity. Qed.

Lemma pmul_cons_r a x b : peq (pmul a (x :: b)) (padd (pscale x a) (0 :: pmul a b)).
Proof.
  induction a as [|y a IH].
  - cbn [pmul pscale map padd]. symmetry. exact peq_0_nil.
  - cbn [pmul]. intros [|k].
    + autorewrite with coef. ring.
    + autorewrite with coef. rewrite (IH k). autorewrite with coef. destruct k as [|k]; autorewrite with coef; ring.
Qed.

Lemma pmul_comm a b : peq (pmul a b) (pmul b a).
Proof.
  induction a as [|x a IH].
  - rewrite pmul_nil_r. reflexivity.
  - rewrite pmul_cons_r. cbn [pmul]. rewrite IH. reflexivity.
Qed.

Lemma pmul_1_l a : peq (pmul [1] a) a.
Proof. cbn [pmul]. intros [|k]; autorewrite with coef; ring. Qed.

Lemma pmul_1_r a : peq (pmul a [1]) a.
Proof. rewrite pmul_comm. apply pmul_1_l. Qed.

Lemma pscale_as_pmul c a : peq (pscale c a) (pmul [c] a).
Proof. cbn [pmul]. intros [|k]; autorewrite with coef; ring. Qed.

Lemma pmul_padd_distr_l a b c : peq (pmul a (padd b c)) (padd (pmul a b) (pmul a c)).
Proof.
  induction a as [|x a IH]; [reflexivity|].
  cbn [pmul]. intros [|k]; autorewrite with coef; [ring|]. rewrite (IH k). autorewrite with coef. ring.
Qed.

Lemma pmul_padd_distr_r a b c : peq (pmul (padd a b) c) (padd (pmul a c) (pmul b c)).
Proof.
  rewrite pmul_comm, pmul_padd_distr_l, (pmul_comm c a), (pmul_comm c b). reflexivity.
Qed.

Lemma pmul_pscale_l c a b : peq (pmul (pscale c a) b) (pscale c (pmul a b)).
Proof.
  induction a as [|x a IH]; [reflexivity|].
  change (pscale c (x :: a)) with ((c * x) :: pscale c a). cbn [pmul].
  intros [|k]; autorewrite with coef; [ring|]. rewrite (IH k). autorewrite with coef. ring.
Qed.

Lemma pmul_pscale_r c a b : peq (pmul a (pscale c b)) (pscale c (pmul a b)).
Proof. rewrite pmul_comm, pmul_pscale_l, pmul_comm. reflexivity. Qed.

Lemma pmul_cons0_l a b : peq (pmul (0 :: a) b) (0 :: pmul a b).
Proof. cbn [pmul]. rewrite pscale_0. reflexivity. Qed.

Lemma pmul_cons0_r a b : peq (pmul a (0 :: b)) (0 :: pmul a b).
Proof. rewrite pmul_cons_r, pscale_0. reflexivity. Qed.

Lemma pmul_assoc a b c : peq (pmul a (pmul b c)) (pmul (pmul a b) c).
Proof.
  induction a as [|x a IH]; [reflexivity|].
  cbn [pmul]. rewrite pmul_padd_distr_r, pmul_pscale_l, pmul_cons0_l, IH. reflexivity.
Qed.

Lemma popp_as_pmul a : peq (popp a) (pmul (popp [1]) a).
Proof. unfold popp. cbn [pscale map]. apply pscale_as_pmul. Qed.

Definition poly_ring_theory : ring_theory [] [1] padd pmul psub popp peq :=
  mk_rt [] [1] padd pmul psub popp peq padd_nil_l padd_comm padd_assoc
    pmul_1_l pmul_comm pmul_assoc pmul_padd_distr_r psub_def padd_popp.

Definition poly_ring_ext : ring_eq_ext padd pmul popp peq :=
  mk_reqe padd_peq_Proper pmul_peq_Proper popp_peq_Proper.

Add Ring poly_ring : poly_ring_theory (setoid peq_Equivalence poly_ring_ext).

Lemma cons_0_as_pshift a : peq (0 :: a) (pshift 1 a).
Proof. reflexivity. Qed.

Lemma pshift_0 a : pshift 0 a = a.
Proof. reflexivity. Qed.

Lemma pshift_S n a : pshift (S n) a = 0 :: pshift n a.
Proof. reflexivity. Qed.

Lemma pmul_pshift n a b : peq (pmul (pshift n a) b) (pshift n (pmul a b)).
Proof.
  induction n as [|n IH]; [reflexivity|].
  rewrite !pshift_S, pmul_cons0_l, IH. reflexivity.
Qed.

Lemma pmul_pshift_r n a b : peq (pmul a (pshift n b)) (pshift n (pmul a b)).
Proof. rewrite pmul_comm, pmul_pshift, pmul_comm. reflexivity. Qed.

Lemma pshift_as_pmul n a : peq (pshift n a) (pmul (pshift n [1]) a).
Proof. rewrite pmul_pshift, pmul_1_l. reflexivity. Qed.

Lemma pshift_pshift n m a : pshift n (pshift m a) = pshift (n + m) a.
Proof. unfold pshift. rewrite repeat_app, app_assoc. reflexivity. Qed.

Lemma cons_as_padd x a : peq (x :: a) (padd [x] (0 :: a)).
Proof. intros [|k]; autorewrite with coef; [ring|]. destruct k; autorewrite with coef; ring. Qed.

Lemma cons_0_as_pmul a : peq (0 :: a) (pmul [0; 1] a).
Proof. rewrite pmul_cons0_l, pmul_1_l. reflexivity. Qed.

Lemma pshift_nil n : peq (pshift n []) [].
Proof. rewrite pshift_as_pmul. apply pmul_nil_r. Qed.

Lemma pshift_padd n a b : peq (pshift n (padd a b)) (padd (pshift n a) (pshift n b)).
Proof. rewrite (pshift_as_pmul n (padd a b)), (pshift_as_pmul n a), (pshift_as_pmul n b). ring. Qed.

(* X^n (x + X a) = x X^n + X^(n+1) a *)
Lemma pshift_cons n x a : peq (pshift n (x :: a)) (padd (pshift n [x]) (pshift (n + 1) a)).
Proof. rewrite (cons_as_padd x a), pshift_padd, <- pshift_pshift. reflexivity. Qed.

Lemma single_add x y : peq [x + y] (padd [x] [y]).
Proof. reflexivity. Qed.

Lemma single_mul x y : peq [x * y] (pmul [x] [y]).
Proof. cbn [pmul pscale map padd]. rewrite Z.add_0_r. reflexivity. Qed.

Lemma ppow_0 a : ppow a 0 = [1].
Proof. reflexivity. Qed.

Lemma ppow_S a n : ppow a (S n) = pmul a (ppow a n).
Proof. reflexivity. Qed.

Lemma ppow_1 a : peq (ppow a 1) a.
Proof. cbn [ppow]. apply pmul_1_r. Qed.

Lemma ppow_add a n m : peq (ppow a (n + m)) (pmul (ppow a n) (ppow a m)).
Proof.
  induction n as [|n IH].
  - cbn [Nat.add ppow]. rewrite pmul_1_l. reflexivity.
  - cbn [Nat.add ppow]. rewrite IH. ring.
Qed.

Lemma ppow_one n : peq (ppow [1] n) [1].
Proof.
  induction n as [|n IH]; [reflexivity|]. cbn [ppow]. rewrite IH. ring.
Qed.

Lemma ppow_pmul a b n : peq (ppow (pmul a b) n) (pmul (ppow a n) (ppow b n)).
Proof.
  induction n as [|n IH].
  - cbn [ppow]. ring.
  - cbn [ppow]. rewrite IH. ring.
Qed.

Lemma ppow_mul a n m : peq (ppow a (n * m)) (ppow (ppow a n) m).
Proof.
  induction m as [|m IH].
  - rewrite Nat.mul_0_r. reflexivity.
  - rewrite Nat.mul_succ_r, Nat.add_comm, ppow_add, IH. reflexivity.
Qed.

Lemma ppow_nil n : (0 < n)%nat -> peq (ppow [] n) [].
Proof. destruct n; [lia|]. reflexivity. Qed.

Example poly_ring_example a b :
  peq (pmul (padd a b) (padd a b))
      (padd (pmul a a) (padd (pmul (padd [1] [1]) (pmul a b)) (pmul b b))).
Proof. ring. Qed.

Example poly_ring_example2 a b :
  peq (pmul (psub a b) (padd a b)) (psub (pmul a a) (pmul b b)).
Proof. ring. Qed.

Fixpoint pstrip (l : list Z) : list Z :=
  match l with
  | [] => []
  | x :: r => match pstrip r with [] => if x =? 0 then [] else [x] | r' => x :: r' end
  end.
Definition pnorm (p : Z) (a : list Z) : list Z := pstrip (map (fun c => c mod p) a).

Lemma pstrip_cons x r :
  pstrip (x :: r) =
  match pstrip r with [] => if x =? 0 then [] else [x] | _ :: _ => x :: pstrip r end.
Proof. cbn [pstrip]. destruct (pstrip r); reflexivity. Qed.

(* pstrip removes trailing zeros, and nothing else *)
Lemma pstrip_app_zeros a : exists n, a = pstrip a ++ repeat 0 n.
Proof.
  induction a as [|x r [n IH]]; [exists O; reflexivity|].
  rewrite pstrip_cons. revert IH. destruct (pstrip r) as [|z l]; intros IH.
  - destruct (Z.eqb_spec x 0) as [->|_]; [exists (S n)|exists n]; cbn [app repeat]; f_equal; exact IH.
  - exists n. cbn [app]. f_equal. exact IH.
Qed.

Lemma pstrip_peq a : peq (pstrip a) a.
Proof. destruct (pstrip_app_zeros a) as [n E]. rewrite E at 2. symmetry. apply peq_app_zeros. Qed.

Lemma stripped_nil : stripped [].
Proof. unfold stripped. cbn. lia. Qed.

Lemma stripped_cons_cons x y a : stripped (x :: y :: a) <-> stripped (y :: a).
Proof. unfold stripped. reflexivity. Qed.

Lemma stripped_single x : stripped [x] <-> x <> 0.
Proof. unfold stripped. reflexivity. Qed.

Lemma pstrip_stripped a : stripped (pstrip a).
Proof.
  induction a as [|x r IH]; [exact stripped_nil|].
  rewrite pstrip_cons. destruct (pstrip r) as [|z l].
  - destruct (Z.eqb_spec x 0) as [->|Hx]; [exact stripped_nil|].
    apply stripped_single; exact Hx.
  - apply stripped_cons_cons. exact IH.
Qed.

Lemma pstrip_id a : stripped a -> pstrip a = a.
Proof.
  induction a as [|x r IH]; intros H; [reflexivity|].
  rewrite pstrip_cons. destruct r as [|y r].
  - cbn [pstrip]. apply stripped_single in H.
    destruct (Z.eqb_spec x 0); [contradiction|reflexivity].
  - apply stripped_cons_cons in H. rewrite (IH H). reflexivity.
Qed.

Lemma pstrip_length_le a : (length (pstrip a) <= length a)%nat.
Proof. destruct (pstrip_app_zeros a) as [n E]. rewrite E at 2. rewrite app_length. lia. Qed.

Lemma pstrip_nil_iff a : pstrip a = [] <-> peq a [].
Proof.
  split.
  - intros H. rewrite <- (pstrip_peq a), H. reflexivity.
  - induction a as [|x r IH]; intros H; [reflexivity|].
    apply peq_cons_nil_inv in H. destruct H as [-> H].
    rewrite pstrip_cons, (IH H). reflexivity.
Qed.

Lemma pstrip_peq_eq a b : peq a b -> pstrip a = pstrip b.
Proof.
  revert b. induction a as [|x a IH]; intros b H.
  - symmetry. apply pstrip_nil_iff. symmetry. exact H.
  - destruct b as [|y b].
    + apply pstrip_nil_iff. exact H.
    + apply peq_cons_inv in H. destruct H as [-> H].
      rewrite !pstrip_cons, (IH b H). reflexivity.
Qed.

Lemma pstrip_idem a : pstrip (pstrip a) = pstrip a.
Proof. apply pstrip_id, pstrip_stripped. Qed.

Lemma stripped_peq_eq a b : stripped a -> stripped b -> peq a b -> a = b.
Proof.
  intros Ha Hb H. rewrite <- (pstrip_id a Ha), <- (pstrip_id b Hb).
  apply pstrip_peq_eq; exact H.
Qed.

Lemma reduced_nil p : reduced p [].
Proof. constructor. Qed.

Lemma reduced_cons p x a : reduced p (x :: a) <-> 0 <= x < p /\ reduced p a.
Proof. apply Forall_cons_iff. Qed.

Lemma reduced_pstrip p a : reduced p a -> reduced p (pstrip a).
Proof.
  destruct (pstrip_app_zeros a) as [n E]. intros H. rewrite E in H. apply Forall_app in H. apply H.
Qed.

Lemma reduced_map_mod p a : 0 < p -> reduced p (map (fun c => c mod p) a).
Proof.
  intros Hp. induction a as [|x a IH]; [apply reduced_nil|].
  cbn [map]. apply reduced_cons. split; [apply Z.mod_pos_bound; exact Hp|exact IH].
Qed.

Lemma reduced_map_mod_id p a : reduced p a -> map (fun c => c mod p) a = a.
Proof.
  induction a as [|x a IH]; intros H; [reflexivity|].
  apply reduced_cons in H. destruct H as [Hx H].
  cbn [map]. rewrite (IH H), Z.mod_small by exact Hx. reflexivity.
Qed.

Lemma reduced_coef p a k : 0 < p -> reduced p a -> 0 <= coef a k < p.
Proof.
  intros Hp. revert k. induction a as [|x a IH]; intros k H.
  - rewrite coef_nil. lia.
  - apply reduced_cons in H. destruct H as [Hx H].
    destruct k as [|k]; [exact Hx|]. rewrite coef_cons_S. apply IH; exact H.
Qed.

Lemma reduced_of_coef p (l : list Z) :
  (forall k, (k < length l)%nat -> 0 <= coef l k < p) -> reduced p l.
Proof.
  induction l as [|x l IH]; intros H; [apply reduced_nil|].
  apply reduced_cons. split.
  - apply (H O). cbn; lia.
  - apply IH. intros k Hk. specialize (H (S k)). rewrite coef_cons_S in H. apply H. cbn; lia.
Qed.

Lemma reduced_peqm_peq p a b :
  0 < p -> reduced p a -> reduced p b -> peqm p a b -> peq a b.
Proof.
  intros Hp Ha Hb H k. specialize (H k).
  rewrite !Z.mod_small in H by (apply reduced_coef; assumption). exact H.
Qed.

Lemma coef_map_mod p a k : coef (map (fun c => c mod p) a) k = coef a k mod p.
Proof. exact (map_nth (fun c => c mod p) a 0 k). Qed.

Lemma pnorm_wf p a : 0 < p -> wf p (pnorm p a).
Proof.
  intros Hp. split.
  - apply reduced_pstrip, reduced_map_mod; exact Hp.
  - apply pstrip_stripped.
Qed.

Lemma pnorm_peqm p a : 0 < p -> peqm p (pnorm p a) a.
Proof.
  intros _. unfold pnorm.
  transitivity (map (fun c => c mod p) a).
  - apply peq_peqm, pstrip_peq.
  - apply peqm_map_mod.
Qed.

Lemma pnorm_id p a : 0 < p -> wf p a -> pnorm p a = a.
Proof.
  intros _ [Hr Hs]. unfold pnorm. rewrite (reduced_map_mod_id p a Hr).
  apply pstrip_id; exact Hs.
Qed.

Lemma wf_nil p : wf p [].
Proof. split; [apply reduced_nil|apply stripped_nil]. Qed.

Lemma wf_unique p a b : 0 < p -> wf p a -> wf p b -> peqm p a b -> a = b.
Proof.
  intros Hp [Hra Hsa] [Hrb Hsb] H.
  apply stripped_peq_eq; [assumption..|].
  apply (reduced_peqm_peq p); assumption.
Qed.

Lemma wf_peqm_nil p a : 0 < p -> wf p a -> peqm p a [] -> a = [].
Proof. intros Hp Ha H. apply (wf_unique p); [exact Hp|exact Ha|apply wf_nil|exact H]. Qed.

Lemma pnorm_nil p : pnorm p [] = [].
Proof. reflexivity. Qed.

Lemma peqm_pnorm_eq p a b : 0 < p -> (peqm p a b <-> pnorm p a = pnorm p b).
Proof.
  intros Hp. split; intros H.
  - apply (wf_unique p); [exact Hp|apply pnorm_wf; exact Hp..|].
    rewrite !pnorm_peqm by exact Hp. exact H.
  - rewrite <- (pnorm_peqm p a Hp), H. apply pnorm_peqm; exact Hp.
Qed.

Lemma pnorm_nil_iff p a : 0 < p -> (pnorm p a = [] <-> peqm p a []).
Proof.
  intros Hp. rewrite (peqm_pnorm_eq p a [] Hp), pnorm_nil. reflexivity.
Qed.

Lemma pnorm_idem p a : 0 < p -> pnorm p (pnorm p a) = pnorm p a.
Proof. intros Hp. apply pnorm_id; [exact Hp|apply pnorm_wf; exact Hp]. Qed.

Lemma last_default_irrel {A} (a : list A) d d' : a <> [] -> last a d = last a d'.
Proof.
  induction a as [|x a IH]; intros H; [congruence|].
  destruct a as [|y a]; [reflexivity|].
  change (last (y :: a) d = last (y :: a) d'). apply IH. congruence.
Qed.

Lemma stripped_last a : a <> [] -> (stripped a <-> last a 0 <> 0).
Proof.
  intros H. unfold stripped. rewrite (last_default_irrel a 1 0 H). reflexivity.
Qed.

Lemma wf_last_nonzero p a :
  0 < p -> wf p a -> a <> [] -> last a 0 mod p <> 0 /\ 0 < last a 0 < p.
Proof.
  intros Hp [Hr Hs] Hne.
  apply (stripped_last a Hne) in Hs.
  pose proof (reduced_coef p a (length a - 1) Hp Hr) as Hb.
  rewrite <- last_coef in Hb.
  rewrite Z.mod_small by lia. lia.
Qed.

Lemma length_pnorm_le p a : (length (pnorm p a) <= length a)%nat.
Proof.
  unfold pnorm. etransitivity; [apply pstrip_length_le|]. rewrite map_length. reflexivity.
Qed.

Lemma wf_tail_nonzero p a : 0 < p -> wf p a -> a <> [] -> coef a (length a - 1) mod p <> 0.
Proof.
  intros Hp Hw Hne. rewrite <- last_coef. apply (wf_last_nonzero p a Hp Hw Hne).
Qed.

(* goals [peqm p l r] where [l] and [r] are equal in the ring Z[x] *)
Ltac pring := apply peq_peqm; ring.

Lemma pdvd_intro p d a q : peqm p a (pmul d q) -> pdvd p d a.
Proof. intros H. exists q. exact H. Qed.

Lemma pdvd_refl p d : pdvd p d d.
Proof. exists [1]. pring. Qed.

Lemma pdvd_trans p a b c : pdvd p a b -> pdvd p b c -> pdvd p a c.
Proof.
  intros [q1 H1] [q2 H2]. exists (pmul q1 q2).
  rewrite H2, H1. pring.
Qed.

Lemma pdvd_nil p d : pdvd p d [].
Proof. exists []. symmetry. apply peq_peqm, pmul_nil_r. Qed.

Lemma pdvd_peqm p d d' a a' : peqm p d d' -> peqm p a a' -> pdvd p d a -> pdvd p d' a'.
Proof.
  intros Hd Ha [q H]. exists q. rewrite <- Ha, <- Hd. exact H.
Qed.

Global Instance pdvd_peqm_Proper p : Proper (peqm p ==> peqm p ==> iff) (pdvd p).
Proof.
  intros d d' Hd a a' Ha. split; apply pdvd_peqm; try assumption; symmetry; assumption.
Qed.

Global Instance pdvd_peq_Proper p : Proper (peq ==> peq ==> iff) (pdvd p).
Proof.
  intros d d' Hd a a' Ha. apply pdvd_peqm_Proper; apply peq_peqm; assumption.
Qed.

Lemma pdvd_padd p d a b : pdvd p d a -> pdvd p d b -> pdvd p d (padd a b).
Proof.
  intros [q1 H1] [q2 H2]. exists (padd q1 q2). rewrite H1, H2. pring.
Qed.

Lemma pdvd_popp p d a : pdvd p d a -> pdvd p d (popp a).
Proof. intros [q H]. exists (popp q). rewrite H. pring. Qed.

Lemma pdvd_psub p d a b : pdvd p d a -> pdvd p d b -> pdvd p d (psub a b).
Proof. intros Ha Hb. unfold psub. apply pdvd_padd; [exact Ha|apply pdvd_popp; exact Hb]. Qed.

Lemma pdvd_pmul_r p d a b : pdvd p d a -> pdvd p d (pmul a b).
Proof. intros [q H]. exists (pmul q b). rewrite H. pring. Qed.

Lemma pdvd_pmul_l p d a b : pdvd p d b -> pdvd p d (pmul a b).
Proof. intros [q H]. exists (pmul a q). rewrite H. pring. Qed.

Lemma pdvd_pscale p d c a : pdvd p d a -> pdvd p d (pscale c a).
Proof.
  intros H. rewrite (peq_peqm p _ _ (pscale_as_pmul c a)). apply pdvd_pmul_l; exact H.
Qed.

Lemma pdvd_pmul_both p d1 d2 a b :
  pdvd p d1 a -> pdvd p d2 b -> pdvd p (pmul d1 d2) (pmul a b).
Proof.
  intros [q1 H1] [q2 H2]. exists (pmul q1 q2). rewrite H1, H2. pring.
Qed.

Lemma pdvd_ppow p d a n : pdvd p d a -> pdvd p (ppow d n) (ppow a n).
Proof.
  intros H. induction n as [|n IH]; [apply pdvd_refl|].
  cbn [ppow]. apply pdvd_pmul_both; assumption.
Qed.

Lemma pdvd_self_pmul_r p d q : pdvd p d (pmul d q).
Proof. exists q. reflexivity. Qed.

Lemma pdvd_self_pmul_l p d q : pdvd p d (pmul q d).
Proof. exists q. pring. Qed.

Lemma pscale_unit p c c' a : (c * c') mod p = 1 mod p -> peqm p (pscale c (pscale c' a)) a.
Proof.
  intros H. rewrite (peq_peqm p _ _ (pscale_pscale c c' a)).
  rewrite (peqm_pscale p _ _ a a H (reflexivity a)). apply peq_peqm, pscale_1.
Qed.

Lemma pdvd_unit_scale_r p c c' d a :
  (c * c') mod p = 1 mod p -> (pdvd p d (pscale c a) <-> pdvd p d a).
Proof.
  intros H. split; intros Hd.
  - apply (pdvd_pscale p d c') in Hd.
    rewrite Z.mul_comm in H. rewrite (pscale_unit p c' c a H) in Hd. exact Hd.
  - apply pdvd_pscale; exact Hd.
Qed.

Lemma pdvd_unit_scale_l p c c' d a :
  (c * c') mod p = 1 mod p -> (pdvd p (pscale c d) a <-> pdvd p d a).
Proof.
  intros H. split; intros [q Hq].
  - exists (pscale c q). rewrite Hq. apply peq_peqm.
    rewrite pmul_pscale_l, pmul_pscale_r. reflexivity.
  - exists (pscale c' q). rewrite Hq.
    rewrite (peq_peqm p _ _ (pmul_pscale_l c d (pscale c' q))).
    rewrite (peq_peqm p _ _ (pmul_pscale_r c' d q)).
    symmetry. apply pscale_unit; exact H.
Qed.

Lemma pdvd_unit_scale p c c' d a :
  (c * c') mod p = 1 mod p ->
  (pdvd p d (pscale c a) <-> pdvd p d a) /\ (pdvd p (pscale c d) a <-> pdvd p d a).
Proof.
  intros H. split; [apply (pdvd_unit_scale_r p c c'); exact H|apply (pdvd_unit_scale_l p c c'); exact H].
Qed.

(* the pattern of this section: m divides a combination of the hypotheses, and the ring
   normaliser identifies that combination with the difference in the goal *)
Lemma pdvd_peq p d a a' : peq a a' -> pdvd p d a -> pdvd p d a'.
Proof. intros H. apply pdvd_peqm; [reflexivity|apply peq_peqm, H]. Qed.

Global Instance pcong_Equivalence p m : Equivalence (pcong p m).
Proof.
  unfold pcong. split.
  - intros a. apply (pdvd_peq p m []); [ring|apply pdvd_nil].
  - intros a b H. apply (pdvd_peq p m (popp (psub a b))); [ring|apply pdvd_popp, H].
  - intros a b c H1 H2.
    apply (pdvd_peq p m (padd (psub a b) (psub b c))); [ring|apply pdvd_padd; assumption].
Qed.

Lemma pcong_peqm p m a b : peqm p a b -> pcong p m a b.
Proof. intros H. unfold pcong. rewrite H. change (pcong p m b b). reflexivity. Qed.

Lemma pcong_peq p m a b : peq a b -> pcong p m a b.
Proof. intros H. apply pcong_peqm, peq_peqm, H. Qed.

Global Instance pcong_peqm_subrelation p m : subrelation (peqm p) (pcong p m).
Proof. intros a b. apply pcong_peqm. Qed.

Global Instance padd_pcong_Proper p m : Proper (pcong p m ==> pcong p m ==> pcong p m) padd.
Proof.
  unfold pcong. intros a a' Ha b b' Hb.
  apply (pdvd_peq p m (padd (psub a a') (psub b b'))); [ring|apply pdvd_padd; assumption].
Qed.

Global Instance popp_pcong_Proper p m : Proper (pcong p m ==> pcong p m) popp.
Proof.
  unfold pcong. intros a a' Ha.
  apply (pdvd_peq p m (popp (psub a a'))); [ring|apply pdvd_popp, Ha].
Qed.

Global Instance psub_pcong_Proper p m : Proper (pcong p m ==> pcong p m ==> pcong p m) psub.
Proof. intros a a' Ha b b' Hb. unfold psub. rewrite Ha, Hb. reflexivity. Qed.

Global Instance pmul_pcong_Proper p m : Proper (pcong p m ==> pcong p m ==> pcong p m) pmul.
Proof.
  unfold pcong. intros a a' Ha b b' Hb.
  apply (pdvd_peq p m (padd (pmul (psub a a') b) (pmul a' (psub b b')))); [ring|].
  apply pdvd_padd; [apply pdvd_pmul_r, Ha|apply pdvd_pmul_l, Hb].
Qed.

Lemma pcong_pscale p m c a a' : pcong p m a a' -> pcong p m (pscale c a) (pscale c a').
Proof.
  unfold pcong. intros H. apply (pdvd_peq p m (pscale c (psub a a'))); [|apply pdvd_pscale, H].
  intros k. autorewrite with coef. ring.
Qed.

Global Instance ppow_pcong_Proper p m : Proper (pcong p m ==> eq ==> pcong p m) ppow.
Proof.
  intros a a' Ha n n' <-. induction n as [|n IH]; [reflexivity|].
  cbn [ppow]. rewrite IH, Ha. reflexivity.
Qed.

Lemma pcong_pcomp_l p m g h h' : pcong p m h h' -> pcong p m (pcomp g h) (pcomp g h').
Proof.
  intros H. induction g as [|c g IH]; [reflexivity|].
  cbn [pcomp]. rewrite IH, H. reflexivity.
Qed.

Lemma pcong_nil_iff p m a : pcong p m a [] <-> pdvd p m a.
Proof. unfold pcong. split; apply pdvd_peq; ring. Qed.

Lemma pcong_pdvd_modulus p m m' a b : pdvd p m' m -> pcong p m a b -> pcong p m' a b.
Proof. unfold pcong. intros H1 H2. exact (pdvd_trans p _ _ _ H1 H2). Qed.

Lemma Zmod_mul_nonzero p x y :
  prime p -> x mod p <> 0 -> y mod p <> 0 -> (x * y) mod p <> 0.
Proof.
  intros Hp Hx Hy H.
  assert (Hp0 : p <> 0) by (destruct Hp; lia).
  apply Zmod_divide in H; [|exact Hp0].
  apply prime_mult in H; [|exact Hp].
  destruct H as [H|H]; apply Zdivide_mod in H; contradiction.
Qed.

Lemma prime_pos p : prime p -> 0 < p.
Proof. intros [H _]. lia. Qed.

Lemma pmul_lc_nonzero p a b :
  prime p -> a <> [] -> b <> [] -> last a 0 mod p <> 0 -> last b 0 mod p <> 0 ->
  coef (pmul a b) (length a + length b - 2) mod p <> 0.
Proof.
  intros Hp Ha Hb Hla Hlb. rewrite coef_pmul_top by assumption.
  apply Zmod_mul_nonzero; assumption.
Qed.

Lemma wf_pmul_top_nonzero p a b :
  prime p -> wf p a -> wf p b -> a <> [] -> b <> [] ->
  coef (pmul a b) (length a + length b - 2) mod p <> 0.
Proof.
  intros Hp Ha Hb Hna Hnb. pose proof (prime_pos p Hp) as Hp0.
  apply pmul_lc_nonzero; try assumption.
  - apply (wf_last_nonzero p a Hp0 Ha Hna).
  - apply (wf_last_nonzero p b Hp0 Hb Hnb).
Qed.

Lemma pdvd_small_zero p h r :
  prime p -> wf p h -> h <> [] -> pdvd p h r -> (length r < length h)%nat -> peqm p r [].
Proof.
  intros Hp Hh Hne [s Hs] Hlen. pose proof (prime_pos p Hp) as Hp0.
  assert (Hs' : peqm p r (pmul h (pnorm p s))).
  { rewrite (pnorm_peqm p s Hp0). exact Hs. }
  pose proof (pnorm_wf p s Hp0) as Hw.
  destruct (pnorm p s) as [|z s'] eqn:E.
  - rewrite Hs'. apply peq_peqm, pmul_nil_r.
  - exfalso.
    assert (Hsn : z :: s' <> []) by congruence.
    apply (wf_pmul_top_nonzero p h (z :: s') Hp Hh Hw Hne Hsn).
    rewrite <- (Hs' _). rewrite coef_overflow; [apply Zmod_0_l|].
    cbn [length]. lia.
Qed.

Lemma pmul_eq_zero p a b :
  prime p -> peqm p (pmul a b) [] -> peqm p a [] \/ peqm p b [].
Proof.
  intros Hp H. pose proof (prime_pos p Hp) as Hp0.
  pose proof (pnorm_wf p a Hp0) as Hwa. pose proof (pnorm_wf p b Hp0) as Hwb.
  pose proof (pnorm_peqm p a Hp0) as Hea. pose proof (pnorm_peqm p b Hp0) as Heb.
  destruct (pnorm p a) as [|x a'] eqn:Ea; [left; symmetry; exact Hea|].
  destruct (pnorm p b) as [|y b'] eqn:Eb; [right; symmetry; exact Heb|].
  exfalso.
  assert (Hna : x :: a' <> []) by congruence.
  assert (Hnb : y :: b' <> []) by congruence.
  apply (wf_pmul_top_nonzero p _ _ Hp Hwa Hwb Hna Hnb).
  rewrite (pmul_peqm_Proper p _ _ Hea _ _ Heb _), (H _), coef_nil. apply Zmod_0_l.
Qed.

Lemma peqm_psub_nil p a b : peqm p (psub a b) [] <-> peqm p a b.
Proof.
  split; intros H.
  - transitivity (padd (psub a b) b); [pring|]. rewrite H. reflexivity.
  - rewrite H. pring.
Qed.

Lemma pmul_cancel_l p a b c :
  prime p -> ~ peqm p a [] -> peqm p (pmul a b) (pmul a c) -> peqm p b c.
Proof.
  intros Hp Ha H. apply peqm_psub_nil.
  destruct (pmul_eq_zero p a (psub b c) Hp) as [H0|H0]; [|contradiction|exact H0].
  transitivity (psub (pmul a b) (pmul a c)); [pring|]. apply peqm_psub_nil. exact H.
Qed.

Lemma pmul_cancel_r p a b c :
  prime p -> ~ peqm p a [] -> peqm p (pmul b a) (pmul c a) -> peqm p b c.
Proof.
  intros Hp Ha H. apply (pmul_cancel_l p a b c Hp Ha).
  rewrite (peq_peqm p _ _ (pmul_comm a b)), (peq_peqm p _ _ (pmul_comm a c)). exact H.
Qed.

Lemma map_nonnil {A B} (f : A -> B) l : l <> [] -> map f l <> [].
Proof. destruct l; [congruence|discriminate]. Qed.

Lemma length_pnorm_pmul p a b :
  prime p -> wf p a -> wf p b -> a <> [] -> b <> [] ->
  length (pnorm p (pmul a b)) = (length a + length b - 1)%nat.
Proof.
  intros Hp Ha Hb Hna Hnb.
  pose proof (length_nonnil a Hna) as La. pose proof (length_nonnil b Hnb) as Lb.
  pose proof (length_pmul a b Hna Hnb) as L.
  assert (Hne : pmul a b <> []).
  { intros E. rewrite E in L. cbn [length] in L. lia. }
  unfold pnorm. rewrite pstrip_id.
  - rewrite map_length. exact L.
  - apply stripped_last; [apply map_nonnil; exact Hne|].
    rewrite last_coef, map_length, coef_map_mod, L.
    replace (length a + length b - 1 - 1)%nat with (length a + length b - 2)%nat by lia.
    apply wf_pmul_top_nonzero; assumption.
Qed.

Lemma peval_nil x : peval [] x = 0.
Proof. reflexivity. Qed.

Lemma peval_cons c a x : peval (c :: a) x = c + x * peval a x.
Proof. reflexivity. Qed.

Lemma peval_padd a b x : peval (padd a b) x = peval a x + peval b x.
Proof.
  revert b. induction a as [|c a IH]; intros b.
  - cbn [padd]. rewrite peval_nil. ring.
  - destruct b as [|d b].
    + cbn [padd]. rewrite peval_nil. ring.
    + cbn [padd]. rewrite !peval_cons, IH. ring.
Qed.

Lemma peval_pscale c a x : peval (pscale c a) x = c * peval a x.
Proof.
  induction a as [|d a IH].
  - cbn [pscale map]. rewrite peval_nil. ring.
  - change (pscale c (d :: a)) with (c * d :: pscale c a).
    rewrite !peval_cons, IH. ring.
Qed.

Lemma peval_popp a x : peval (popp a) x = - peval a x.
Proof. unfold popp. rewrite peval_pscale. ring. Qed.

Lemma peval_psub a b x : peval (psub a b) x = peval a x - peval b x.
Proof. unfold psub. rewrite peval_padd, peval_popp. ring. Qed.

Lemma peval_pmul a b x : peval (pmul a b) x = peval a x * peval b x.
Proof.
  induction a as [|c a IH].
  - cbn [pmul]. rewrite peval_nil. ring.
  - cbn [pmul]. rewrite peval_padd, peval_pscale, !peval_cons, IH. ring.
Qed.

Lemma peval_ppow a n x : peval (ppow a n) x = (peval a x) ^ (Z.of_nat n).
Proof.
  induction n as [|n IH].
  - cbn [ppow]. rewrite peval_cons, peval_nil. change (Z.of_nat 0) with 0.
    rewrite Z.pow_0_r. ring.
  - cbn [ppow]. rewrite peval_pmul, IH, Nat2Z.inj_succ, Z.pow_succ_r by lia. reflexivity.
Qed.

Lemma peval_pcomp g h x : peval (pcomp g h) x = peval g (peval h x).
Proof.
  induction g as [|c g IH].
  - reflexivity.
  - cbn [pcomp]. rewrite peval_padd, peval_pmul, IH, !peval_cons, peval_nil. ring.
Qed.

Lemma peval_pshift n a x : peval (pshift n a) x = x ^ (Z.of_nat n) * peval a x.
Proof.
  induction n as [|n IH].
  - rewrite pshift_0. change (Z.of_nat 0) with 0. rewrite Z.pow_0_r. ring.
  - rewrite pshift_S, peval_cons, IH, Nat2Z.inj_succ, Z.pow_succ_r by lia. ring.
Qed.

Lemma peval_peqm_nil p a x : peqm p a [] -> peval a x mod p = 0 mod p.
Proof.
  induction a as [|c a IH]; intros H; [reflexivity|].
  apply peqm_cons_nil_inv in H. destruct H as [Hc H].
  rewrite peval_cons. replace (0 mod p) with ((0 + x * 0) mod p) by (f_equal; ring).
  apply Zplus_eqm; [exact Hc|]. apply Zmult_eqm; [reflexivity|exact (IH H)].
Qed.

Lemma peval_peqm p a b x y :
  peqm p a b -> x mod p = y mod p -> peval a x mod p = peval b y mod p.
Proof.
  intros H Hxy. revert b H. induction a as [|c a IH]; intros [|d b] H.
  - reflexivity.
  - symmetry. apply peval_peqm_nil. symmetry. exact H.
  - apply peval_peqm_nil. exact H.
  - apply peqm_cons_inv in H. destruct H as [Hc H].
    rewrite !peval_cons. apply Zplus_eqm; [exact Hc|].
    apply Zmult_eqm; [exact Hxy|]. apply IH; exact H.
Qed.

Global Instance peval_peq_Proper : Proper (peq ==> eq ==> eq) peval.
Proof.
  intros a b H x y <-. rewrite <- (Zmod_0_r (peval a x)), <- (Zmod_0_r (peval b x)).
  apply peval_peqm; [apply peq_peqm0; exact H|reflexivity].
Qed.

Lemma pcomp_nil h : pcomp [] h = [].
Proof. reflexivity. Qed.

Lemma pcomp_cons c g h : pcomp (c :: g) h = padd [c] (pmul h (pcomp g h)).
Proof. reflexivity. Qed.

Lemma pcomp_padd g1 g2 h : peq (pcomp (padd g1 g2) h) (padd (pcomp g1 h) (pcomp g2 h)).
Proof.
  revert g2. induction g1 as [|c g1 IH]; intros g2.
  - cbn [padd pcomp]. reflexivity.
  - destruct g2 as [|d g2].
    + cbn [padd]. rewrite pcomp_nil. ring.
    + cbn [padd]. rewrite !pcomp_cons, IH, single_add. ring.
Qed.

Lemma pcomp_pscale c g h : peq (pcomp (pscale c g) h) (pscale c (pcomp g h)).
Proof.
  induction g as [|d g IH]; [reflexivity|].
  change (pscale c (d :: g)) with (c * d :: pscale c g).
  rewrite !pcomp_cons, IH, pscale_padd, !pscale_as_pmul, single_mul. ring.
Qed.

Lemma pcomp_cons0 g h : peq (pcomp (0 :: g) h) (pmul h (pcomp g h)).
Proof. rewrite pcomp_cons, peq_0_nil. ring. Qed.

Lemma pcomp_pmul g1 g2 h : peq (pcomp (pmul g1 g2) h) (pmul (pcomp g1 h) (pcomp g2 h)).
Proof.
  induction g1 as [|c g1 IH].
  - cbn [pmul pcomp]. reflexivity.
  - cbn [pmul]. rewrite pcomp_padd, pcomp_pscale, pcomp_cons0, IH, pcomp_cons.
    rewrite pscale_as_pmul. ring.
Qed.

Lemma pcomp_popp g h : peq (pcomp (popp g) h) (popp (pcomp g h)).
Proof. unfold popp. apply pcomp_pscale. Qed.

Lemma pcomp_psub g1 g2 h : peq (pcomp (psub g1 g2) h) (psub (pcomp g1 h) (pcomp g2 h)).
Proof. unfold psub. rewrite pcomp_padd, pcomp_popp. reflexivity. Qed.

Lemma pcomp_ppow g n h : peq (pcomp (ppow g n) h) (ppow (pcomp g h) n).
Proof.
  induction n as [|n IH].
  - cbn [ppow pcomp]. rewrite pmul_nil_r. reflexivity.
  - cbn [ppow]. rewrite pcomp_pmul, IH. reflexivity.
Qed.

Lemma pcomp_const c h : peq (pcomp [c] h) [c].
Proof. cbn [pcomp]. rewrite pmul_nil_r. reflexivity. Qed.

Lemma pcomp_X h : peq (pcomp [0; 1] h) h.
Proof. rewrite pcomp_cons0, pcomp_const. ring. Qed.

Lemma pcomp_assoc f g h : peq (pcomp (pcomp f g) h) (pcomp f (pcomp g h)).
Proof.
  induction f as [|c f IH]; [reflexivity|].
  rewrite !pcomp_cons, pcomp_padd, pcomp_pmul, IH, pcomp_const. reflexivity.
Qed.

Lemma pcong_pcomp_r p m g g' h :
  pcong p m g g' -> pcong p (pcomp m h) (pcomp g h) (pcomp g' h).
Proof.
  unfold pcong. intros [q Hq]. exists (pcomp q h).
  rewrite <- (peq_peqm p _ _ (pcomp_pmul m q h)), <- (peq_peqm p _ _ (pcomp_psub g g' h)).
  apply pcomp_peqm_Proper; [exact Hq|reflexivity].
Qed.

Lemma pdiff_nil : pdiff [] = [].
Proof. reflexivity. Qed.

Lemma pdiff_padd a b : peq (pdiff (padd a b)) (padd (pdiff a) (pdiff b)).
Proof. intros k. rewrite coef_padd, !coef_pdiff, coef_padd. ring. Qed.

Lemma pdiff_pscale c a : peq (pdiff (pscale c a)) (pscale c (pdiff a)).
Proof. intros k. rewrite coef_pscale, !coef_pdiff, coef_pscale. ring. Qed.

Lemma pdiff_popp a : peq (pdiff (popp a)) (popp (pdiff a)).
Proof. unfold popp. apply pdiff_pscale. Qed.

Lemma pdiff_psub a b : peq (pdiff (psub a b)) (psub (pdiff a) (pdiff b)).
Proof. unfold psub. rewrite pdiff_padd, pdiff_popp. reflexivity. Qed.

Lemma pdiff_cons x a : peq (pdiff (x :: a)) (padd a (0 :: pdiff a)).
Proof.
  intros [|k].
  - rewrite coef_padd, coef_pdiff, coef_cons_S, coef_cons_O.
    change (Z.of_nat 1) with 1. ring.
  - rewrite coef_padd, coef_pdiff, !coef_cons_S, coef_pdiff.
    rewrite (Nat2Z.inj_succ (S k)). ring.
Qed.

Lemma pdiff_const c : peq (pdiff [c]) [].
Proof. reflexivity. Qed.

Lemma pdiff_pmul a b :
  peq (pdiff (pmul a b)) (padd (pmul (pdiff a) b) (pmul a (pdiff b))).
Proof.
  induction a as [|x a IH].
  - cbn [pmul]. rewrite pdiff_nil. cbn [pmul padd]. reflexivity.
  - cbn [pmul]. rewrite pdiff_padd, pdiff_pscale, !pdiff_cons, IH.
    rewrite (cons_0_as_pmul (pdiff a)), (cons_0_as_pmul (pmul a (pdiff b))),
      (cons_0_as_pmul (padd (pmul (pdiff a) b) (pmul a (pdiff b)))).
    rewrite !pscale_as_pmul. ring.
Qed.

Lemma pdiff_ppow a n :
  peq (pdiff (ppow a (S n))) (pmul (pscale (Z.of_nat (S n)) (ppow a n)) (pdiff a)).
Proof.
  induction n as [|n IH].
  - cbn [ppow]. rewrite pmul_1_r. change (Z.of_nat 1) with 1. rewrite pscale_1. ring.
  - rewrite (ppow_S a (S n)), pdiff_pmul, IH.
    replace (Z.of_nat (S (S n))) with (Z.of_nat (S n) + 1) by lia.
    rewrite pscale_add_l, pscale_1, (ppow_S a n).
    rewrite !pscale_as_pmul. ring.
Qed.

