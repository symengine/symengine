(* C23 -- division with remainder (gf_div, operator/=, operator%=). *)
From SE Require Import C23.GFSpec C23.GFPolyLemmas C23.GFArith C23.GFProofsRing.
From Coq Require Import Lia Setoid.
Local Open Scope Z_scope.
Local Arguments Z.mul : simpl never.
Local Arguments Z.add : simpl never.
Local Arguments Z.modulo : simpl never.
Local Arguments Z.sub : simpl never.

Section DivLoop.
Variables (p inv : Z) (g f : list Z) (m n : nat).
Hypothesis Hp : 0 < p.
Hypothesis Hg : length g = S m.
Hypothesis Hf : length f = S n.
Hypothesis Hmn : (m <= n)%nat.

Definition lbd (it : nat) : nat := if (n <? m + it)%nat then (m + it - n)%nat else O.
Definition ubd (it : nat) : nat := Nat.min (it + 1) m.

(* the inner sum, over a coefficient function *)
Definition isum (o : nat -> Z) (it : nat) : Z :=
  zsum (ubd it - lbd it) (fun t => o (it - (lbd it + t) + m)%nat * coef g (lbd it + t)).

Definition target (o : nat -> Z) (it : nat) : Z :=
  (if (m <=? it)%nat then (coef f it - isum o it) * inv else coef f it - isum o it) mod p.

(* entries >= it are final, entries < it still hold the dividend *)
Definition inv_at (out : list Z) (it : nat) : Prop :=
  length out = S n /\
  (forall k, (k < it)%nat -> coef out k = coef f k) /\
  (forall k, (it <= k <= n)%nat -> coef out k = target (coef out) k).

Lemma div_bounds_eq it : div_bounds it m n = (lbd it, ubd it).
Proof. reflexivity. Qed.

Lemma div_inner_spec out it : forall cnt j coeff,
  (j + cnt <= it + 1)%nat -> (cnt = O \/ it - j + m < length out)%nat -> (j + cnt <= length g)%nat ->
  div_inner out g it m cnt j coeff =
  Ok (coeff - zsum cnt (fun t => coef out (it - (j + t) + m) * coef g (j + t))).
Proof.
  induction cnt as [|cnt IH]; intros j coeff H1 H2 H3.
  - cbn [div_inner zsum]. f_equal. lia.
  - cbn [div_inner].
    assert (X : (it <? j)%nat = false) by (apply Nat.ltb_ge; lia). rewrite X.
    rewrite vget_ok by lia. cbn [bind]. rewrite vget_ok by lia. cbn [bind].
    rewrite IH by lia. f_equal. rewrite zsum_S_l.
    rewrite Nat.add_0_r.
    rewrite (zsum_ext cnt (fun t => coef out (it - (j + S t) + m) * coef g (j + S t))
                          (fun t => coef out (it - (S j + t) + m) * coef g (S j + t))).
    + lia.
    + intros t _. replace (j + S t)%nat with (S j + t)%nat by lia. reflexivity.
Qed.

Lemma lbd_le it : (it <= n)%nat -> (lbd it <= it /\ lbd it <= m)%nat.
Proof. intros H. unfold lbd. destruct (Nat.ltb_spec n (m + it)); lia. Qed.

Lemma isum_ext o o' it : (it <= n)%nat -> (forall i, (it < i)%nat -> o i = o' i) -> isum o it = isum o' it.
Proof.
  intros Hit H. unfold isum. apply zsum_ext. intros t Ht.
  pose proof (lbd_le it Hit). unfold ubd in Ht.
  rewrite H by lia. reflexivity.
Qed.

Lemma target_ext o o' it : (it <= n)%nat -> (forall i, (it < i)%nat -> o i = o' i) -> target o it = target o' it.
Proof. intros Hit H. unfold target. rewrite (isum_ext o o' it Hit H). reflexivity. Qed.

Lemma div_step_spec out it : (it <= n)%nat -> inv_at out (S it) ->
  exists out', div_step p inv g m n out it = Ok out' /\ inv_at out' it.
Proof.
  intros Hit (HL & Hlow & Hhigh). unfold div_step.
  rewrite vget_ok by lia. cbn [bind]. rewrite div_bounds_eq.
  pose proof (lbd_le it Hit) as [L1 L2].
  rewrite div_inner_spec.
  2:{ unfold ubd. lia. }
  2:{ unfold lbd, ubd. destruct (Nat.ltb_spec n (m + it)); lia. }
  2:{ unfold ubd. lia. }
  cbn [bind]. rewrite vset_ok by lia.
  eexists. split; [reflexivity|].
  split; [rewrite vupd_length; exact HL|]. split.
  - intros k Hk. rewrite coef_vupd_other by lia. apply Hlow. lia.
  - intros k Hk. destruct (Nat.eq_dec k it) as [->|Hne].
    + rewrite coef_vupd_same by lia.
      rewrite (target_ext _ (coef out) it Hit) by (intros i Hi; apply coef_vupd_other; lia).
      unfold target, isum. rewrite (Hlow it) by lia. reflexivity.
    + rewrite coef_vupd_other, (Hhigh k) by lia.
      apply target_ext; [lia|]. intros i Hi. symmetry. apply coef_vupd_other; lia.
Qed.

Lemma div_outer_spec : forall k stop out, (stop + k <= S n)%nat -> inv_at out (stop + k) ->
  exists out', div_outer p inv g m n k stop out = Ok out' /\ inv_at out' stop.
Proof using Hg Hf Hmn.
  induction k as [|k IH]; intros stop out Hk Hinv.
  - exists out. rewrite Nat.add_0_r in Hinv. split; [reflexivity|exact Hinv].
  - cbn [div_outer].
    destruct (div_step_spec out (stop + k)) as (out1 & E1 & I1); [lia| |].
    { replace (S (stop + k)) with (stop + S k)%nat by lia. exact Hinv. }
    rewrite E1. cbn [bind]. apply IH; [lia|exact I1].
Qed.

Lemma inv_at_init : inv_at f (S n).
Proof. split; [exact Hf|]. split; [reflexivity|]. intros k Hk. lia. Qed.

Lemma target_range o it : 0 <= target o it < p.
Proof. unfold target. apply Z.mod_pos_bound. exact Hp. Qed.

Lemma inv_at_reduced out it : inv_at out it ->
  forall k, (it <= k <= n)%nat -> 0 <= coef out k < p.
Proof. intros (_ & _ & H) k Hk. rewrite (H k Hk). apply target_range. Qed.

(* the loops split: rounds it >= stop + k2 first, then the k2 lower rounds *)
Lemma div_outer_split : forall k1 k2 stop out,
  div_outer p inv g m n (k1 + k2) stop out =
  bind (div_outer p inv g m n k1 (stop + k2) out) (fun out' => div_outer p inv g m n k2 stop out').
Proof.
  clear Hp Hg Hf Hmn. induction k1 as [|k1 IH]; intros k2 stop out.
  - reflexivity.
  - cbn [Nat.add div_outer]. replace (stop + k2 + k1)%nat with (stop + (k1 + k2))%nat by lia.
    destruct (div_step p inv g m n out (stop + (k1 + k2))) as [o1| | |]; cbn [bind]; try reflexivity.
    apply IH.
Qed.

(* rounds below m leave the entries from m on unchanged *)
Lemma div_step_low out it out' : (it < m)%nat -> div_step p inv g m n out it = Ok out' ->
  skipn m out' = skipn m out.
Proof.
  clear Hp Hg Hf Hmn. intros Hit. unfold div_step.
  destruct (vget out it) as [c0| | |]; cbn [bind]; try discriminate.
  rewrite div_bounds_eq.
  destruct (div_inner out g it m (ubd it - lbd it) (lbd it) c0) as [c| | |]; cbn [bind]; try discriminate.
  unfold vset. destruct (it <? length out)%nat; [|discriminate].
  intros [= <-]. apply skipn_vupd, Hit.
Qed.

Lemma div_outer_low : forall k out out', (k <= m)%nat ->
  div_outer p inv g m n k O out = Ok out' -> skipn m out' = skipn m out.
Proof using Type.
  clear Hp Hg Hf Hmn. induction k as [|k IH]; intros out out' Hk H.
  - cbn in H. inversion H. reflexivity.
  - cbn [div_outer Nat.add] in H.
    destruct (div_step p inv g m n out k) as [o1| | |] eqn:E; cbn [bind] in H; try discriminate.
    apply div_step_low in E; [|lia]. rewrite (IH o1 out' ltac:(lia) H). apply E.
Qed.

Hypothesis Hinv : (coef g m * inv) mod p = 1 mod p.

(* the convolution (g q)_k, q the upper part of the array, is the inner sum of round k plus,
   in the quotient rounds, the term of the leading coefficient *)
Lemma conv_isum out k : length out = S n -> (k <= n)%nat ->
  zsum (S k) (fun j => coef g j * coef (skipn m out) (k - j)) =
  isum (coef out) k + (if (m <=? k)%nat then coef out k * coef g m else 0).
Proof using Hg Hf Hmn.
  intros HL Hk. pose proof (lbd_le k Hk) as [L1 L2].
  set (c := if (m <=? k)%nat then 1%nat else 0%nat).
  rewrite (zsum_window (S k) (lbd k) (ubd k - lbd k + c)).
  - transitivity (zsum (ubd k - lbd k + c)
                    (fun t => coef out (k - (lbd k + t) + m) * coef g (lbd k + t))).
    { apply zsum_ext. intros t _. rewrite coef_skipn, (Nat.add_comm m). apply Z.mul_comm. }
    unfold isum, c. destruct (Nat.leb_spec m k).
    + rewrite Nat.add_1_r. cbn [zsum]. do 2 f_equal; f_equal; unfold ubd; lia.
    + rewrite Nat.add_0_r, Z.add_0_r. reflexivity.
  - unfold ubd, c. destruct (Nat.leb_spec m k); lia.
  - intros j Hj [Hlo|Hhi]; rewrite coef_skipn.
    + rewrite (coef_overflow out); [ring|]. unfold lbd in Hlo. destruct (Nat.ltb_spec n (m + k)); lia.
    + rewrite (coef_overflow g); [ring|]. unfold ubd, c in Hhi. destruct (Nat.leb_spec m k); lia.
Qed.

Lemma div_solution out : inv_at out O ->
  peqm p f (padd (pmul g (skipn m out)) (firstn m out)).
Proof using Hg Hf Hmn Hinv.
  intros (HL & _ & Hhigh) k. rewrite coef_padd, coef_pmul, coef_firstn.
  destruct (Nat.lt_ge_cases n k) as [Hk|Hk].
  { (* above the degree of f everything vanishes *)
    rewrite (coef_overflow f) by lia. rewrite zsum_0.
    - destruct (Nat.ltb_spec k m); [lia|reflexivity].
    - intros j Hj. rewrite coef_skipn. destruct (Nat.le_gt_cases j m).
      + rewrite (coef_overflow out) by lia. ring.
      + rewrite (coef_overflow g) by lia. ring. }
  rewrite (conv_isum out k HL Hk), (Hhigh k) by lia. unfold target.
  set (S0 := isum (coef out) k).
  destruct (Nat.leb_spec m k); destruct (Nat.ltb_spec k m); try lia; rewrite Z.add_0_r.
  - (* quotient rounds: g_m out[k] = g_m inv (f_k - S0) *)
    rewrite <- Zplus_mod_idemp_r, Zmult_mod_idemp_l, Zplus_mod_idemp_r.
    transitivity ((S0 + (coef f k - S0) * 1) mod p); [f_equal; ring|].
    apply Zplus_eqm; [reflexivity|]. rewrite <- Z.mul_assoc, (Z.mul_comm inv).
    apply Zmult_eqm; [reflexivity|]. symmetry. exact Hinv.
  - (* remainder rounds: out[k] = f_k - S0 *)
    rewrite Zplus_mod_idemp_r. f_equal. ring.
Qed.

End DivLoop.

Lemma length_degree (f : list Z) : f <> [] -> length f = S (degree f).
Proof. destruct f; [congruence|reflexivity]. Qed.

Lemma lc_inverse p g : prime p -> wf p g -> g <> [] ->
  (coef g (degree g) * zinvert (last g 0) p) mod p = 1 mod p.
Proof.
  intros Hp Hg Hne. unfold degree. rewrite <- Nat.sub_1_r, <- last_coef.
  apply zinvert_unit; [exact Hp|]. apply (wf_last_nonzero p g (prime_pos p Hp) Hg Hne).
Qed.

Lemma from_vec_reduced p a : reduced p a -> from_vec a p = istrip a.
Proof. intros H. unfold from_vec. rewrite reduced_map_mod_id by exact H. reflexivity. Qed.

(* what "q, r is the result of dividing f by g" means in the three specifications *)
Definition div_result (p : Z) (f g q r : list Z) : Prop :=
  wf p q /\ wf p r /\ peqm p f (padd (pmul q g) r) /\ (length r < length g)%nat.

Lemma div_result_small p f g : wf p f -> (length f < length g)%nat -> div_result p f g [] f.
Proof. intros Hf L. split; [apply wf_nil|]. split; [exact Hf|]. split; [reflexivity|exact L]. Qed.

(* the full loop on a dividend of degree >= the divisor's: quotient in the upper part of the
   array, remainder in the lower part *)
Lemma div_full p f g : prime p -> wf p f -> wf p g -> g <> [] -> (degree g <= degree f)%nat -> f <> [] ->
  exists out, div_outer p (zinvert (last g 0) p) g (degree g) (degree f) (degree f + 1) O f = Ok out /\
    reduced p out /\
    div_result p f g (istrip (skipn (degree g) out)) (istrip (firstn (degree g) out)).
Proof.
  intros Hp Hf Hg Hgne Hdeg Hfne. pose proof (prime_pos p Hp) as Hp0.
  pose proof (length_degree f Hfne) as Lf. pose proof (length_degree g Hgne) as Lg.
  destruct (div_outer_spec p (zinvert (last g 0) p) g f (degree g) (degree f) Lg Lf Hdeg
              (degree f + 1) O f ltac:(lia)) as (out & E & I).
  { replace (0 + (degree f + 1))%nat with (S (degree f)) by lia. apply inv_at_init; auto. }
  assert (Ro : reduced p out).
  { apply reduced_of_coef. intros k Hk. destruct I as (HL & I).
    eapply inv_at_reduced; [exact Hp0|exact (conj HL I)|lia]. }
  exists out. split; [exact E|]. split; [exact Ro|].
  split; [apply istrip_wf, reduced_skipn, Ro|]. split; [apply istrip_wf, reduced_firstn, Ro|]. split.
  - rewrite !istrip_peq, pmul_comm.
    apply (div_solution p (zinvert (last g 0) p) g f (degree g) (degree f) Lg Lf Hdeg);
      [apply lc_inverse; auto|exact I].
  - rewrite istrip_pstrip. eapply Nat.le_lt_trans; [apply pstrip_length_le|].
    rewrite firstn_length, Lg. lia.
Qed.

Theorem gf_div_spec p f g : prime p -> wf p f -> wf p g -> g <> [] ->
  exists q r, gf_div p f g = Ok (q, r) /\ wf p q /\ wf p r /\
    peqm p f (padd (pmul q g) r) /\ (length r < length g)%nat.
Proof.
  intros Hp Hf Hg Hgne. pose proof (prime_pos p Hp) as Hp0.
  pose proof (length_degree g Hgne) as Lg.
  unfold gf_div. destruct g as [|y g']; [congruence|]. remember (y :: g') as g.
  destruct f as [|x f'].
  { exists [], []. split; [reflexivity|]. apply div_result_small; [exact Hf|rewrite Lg; cbn; lia]. }
  remember (x :: f') as f. assert (Hfne : f <> []) by (subst; congruence).
  destruct (Nat.ltb_spec (degree f) (degree g)) as [E|E].
  - exists [], f. rewrite (from_vec_id p f) by auto. split; [reflexivity|].
    apply div_result_small; [exact Hf|rewrite (length_degree f Hfne), Lg; lia].
  - destruct (div_full p f g Hp Hf Hg Hgne E Hfne) as (out & -> & Ro & R).
    cbn [bind].
    rewrite !from_vec_reduced by (apply reduced_skipn || apply reduced_firstn; exact Ro).
    eexists _, _. split; [reflexivity|exact R].
Qed.

Theorem gf_div_zero p f : gf_div p f [] = ErrExn EXN_DIVZERO.
Proof. reflexivity. Qed.

Theorem gf_rem_spec p f g : prime p -> wf p f -> wf p g -> g <> [] ->
  exists q r, gf_rem p f g = Ok r /\ wf p q /\ wf p r /\
    peqm p f (padd (pmul q g) r) /\ (length r < length g)%nat.
Proof.
  intros Hp Hf Hg Hgne. pose proof (length_degree g Hgne) as Lg.
  unfold gf_rem. destruct g as [|y g']; [congruence|]. remember (y :: g') as g.
  destruct f as [|x f'].
  { exists [], []. split; [destruct g'; reflexivity|]. apply div_result_small; [exact Hf|rewrite Lg; cbn; lia]. }
  remember (x :: f') as f. assert (Hfne : f <> []) by (subst; congruence).
  destruct (Nat.ltb_spec (degree f) (degree g)) as [E|E].
  - exists [], f. split; [subst g; destruct g'; [cbn in E; lia|reflexivity]|].
    apply div_result_small; [exact Hf|rewrite (length_degree f Hfne), Lg; lia].
  - destruct (div_full p f g Hp Hf Hg Hgne E Hfne) as (out & Eo & _ & R).
    eexists _, _. split; [|exact R]. rewrite Eo. subst g. destruct g'; reflexivity.
Qed.

Theorem gf_quo_spec p f g : prime p -> wf p f -> wf p g -> g <> [] ->
  exists q r, gf_quo p f g = Ok q /\ wf p q /\ wf p r /\
    peqm p f (padd (pmul q g) r) /\ (length r < length g)%nat.
Proof.
  intros Hp Hf Hg Hgne. pose proof (prime_pos p Hp) as Hp0.
  pose proof (length_degree g Hgne) as Lg.
  unfold gf_quo. destruct g as [|y g']; [congruence|].
  destruct f as [|x f'].
  { exists [], []. split; [reflexivity|]. apply div_result_small; [exact Hf|cbn; lia]. }
  remember (x :: f') as f. assert (Hfne : f <> []) by (subst; congruence).
  destruct g' as [|y' g''].
  - (* constant divisor: every coefficient is multiplied by the inverse; no strip is needed *)
    destruct (wf_last_nonzero p [y] Hp0 Hg Hgne) as [Hy1 Hy2]. cbn [last] in *.
    change (map _ f) with (scale_loop p (zinvert y p) f).
    eexists _, []. split; [reflexivity|]. split; [|split; [apply wf_nil|split; [|cbn; lia]]].
    + apply map_wf; [exact Hp0| | |exact Hf]; intros c Hc.
      * destruct (c =? 0); [lia|apply Z.mod_pos_bound; exact Hp0].
      * destruct (Z.eqb_spec c 0); [lia|].
        apply Zmod_mul_nonzero; [exact Hp|rewrite Z.mod_small; lia|apply zinvert_nonzero; assumption].
    + rewrite padd_nil_r, scale_loop_peqm, pmul_comm, <- pscale_as_pmul.
      symmetry. apply pscale_unit, zinvert_unit; assumption.
  - remember (y :: y' :: g'') as g.
    destruct (Nat.ltb_spec (degree f) (degree g)) as [Ed|Ed].
    + exists [], f. split; [reflexivity|].
      apply div_result_small; [exact Hf|rewrite (length_degree f Hfne), Lg; lia].
    + (* the rounds below deg g, which this loop omits, do not touch the quotient part *)
      destruct (div_full p f g Hp Hf Hg Hgne Ed Hfne) as (out & Eo & _ & R).
      replace (degree f + 1)%nat with ((degree f - degree g + 1) + degree g)%nat in Eo by lia.
      rewrite div_outer_split, Nat.add_0_l in Eo.
      destruct (div_outer p _ g (degree g) (degree f) (degree f - degree g + 1) (degree g) f)
        as [out1| | |]; cbn [bind] in Eo |- *; try discriminate.
      rewrite <- (div_outer_low p _ g (degree g) (degree f) (degree g) out1 out (Nat.le_refl _) Eo).
      eexists _, _. split; [reflexivity|exact R].
Qed.

(* quotient and remainder are unique: gf_quo / gf_rem return the components of gf_div *)
Theorem div_unique p g q r q' r' : prime p -> wf p g -> g <> [] ->
  wf p q -> wf p r -> wf p q' -> wf p r' ->
  peqm p (padd (pmul q g) r) (padd (pmul q' g) r') ->
  (length r < length g)%nat -> (length r' < length g)%nat -> q = q' /\ r = r'.
Proof.
  intros Hp Hg Hgne Wq Wr Wq' Wr' E L L'. pose proof (prime_pos p Hp) as Hp0.
  assert (D : pdvd p g (psub r' r)).
  { exists (psub q q'). apply peqm_psub_nil.
    assert (X : peqm p (psub (padd (pmul q g) r) (padd (pmul q' g) r')) []) by (apply peqm_psub_nil; exact E).
    transitivity (popp (psub (padd (pmul q g) r) (padd (pmul q' g) r'))); [apply peq_peqm; ring|].
    rewrite X. reflexivity. }
  assert (HZ : peqm p (psub r' r) []).
  { apply (pdvd_small_zero p g); auto. rewrite length_psub. lia. }
  apply -> peqm_psub_nil in HZ.
  assert (Er : r = r') by (apply (wf_unique p); auto; symmetry; exact HZ).
  split; [|exact Er]. subst r'.
  assert (Q : peqm p (pmul g (psub q q')) []).
  { assert (X : peqm p (psub (padd (pmul q g) r) (padd (pmul q' g) r)) []) by (apply peqm_psub_nil; exact E).
    rewrite <- X. apply peq_peqm. ring. }
  apply pmul_eq_zero in Q; [|exact Hp]. destruct Q as [Q|Q].
  - exfalso. apply (wf_peqm_nil p g Hp0 Hg) in Q. congruence.
  - apply -> peqm_psub_nil in Q. apply (wf_unique p); auto.
Qed.
