(* C23 obligation: operator- / negate: canonical, equal to the additive inverse in (Z/p)[x]. *)
From SE Require Import C23.GFSpec C23.GFProofsRing.
Local Open Scope Z_scope.
Theorem C23_neg_spec :
  forall (p : Z) (a : gf), 0 < p -> wf p a -> wf p (gf_neg p a) /\ peqm p (gf_neg p a) (popp a).
Proof. exact gf_neg_spec. Qed.
Print Assumptions C23_neg_spec.
