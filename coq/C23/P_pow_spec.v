(* C23 obligation: gf_pow (right-to-left square and multiply over the bits of an unsigned long): canonical result equal to the n-th power, for every n. *)
From SE Require Import C23.GFSpec C23.GFProofsGcd.
Local Open Scope Z_scope.
Theorem C23_pow_spec :
  forall (p : Z) (f : gf) (n : N), 1 < p -> wf p f ->
    exists c, gf_pow p f n = Ok c /\ wf p c /\ peqm p c (ppow f (N.to_nat n)).
Proof. exact gf_pow_spec. Qed.
Print Assumptions C23_pow_spec.
