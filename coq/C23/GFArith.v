(* C23 -- integer facts: the extended Euclid of the model computes modular inverses
   for a prime modulus; coefficient operations agree with arithmetic modulo p. *)
From SE Require Import C23.GFSpec.
From Coq Require Import Lia.
Local Open Scope Z_scope.

Lemma egcd_spec fuel : forall a b, 0 <= b < a -> a * b < 2 ^ Z.of_nat fuel ->
  let '(g, x, y) := egcd fuel a b in a * x + b * y = g /\ g = Z.gcd a b.
Proof.
  induction fuel as [|fuel IH]; intros a b Hab Hlt.
  - cbn [egcd]. change (2 ^ Z.of_nat 0) with 1 in Hlt.
    assert (b = 0) by nia. subst b. split; [ring|]. rewrite Z.gcd_0_r. lia.
  - cbn [egcd]. destruct (b =? 0) eqn:Eb.
    + apply Z.eqb_eq in Eb. subst b. split; [ring|]. rewrite Z.gcd_0_r. lia.
    + apply Z.eqb_neq in Eb.
      assert (Hb : 0 < b) by lia.
      pose proof (Z.mod_pos_bound a b Hb) as Hr.
      pose proof (Z.div_mod a b ltac:(lia)) as Hdm.
      assert (Hq : 1 <= a / b) by (apply Z.div_le_lower_bound; lia).
      assert (Hsmall : b * (a mod b) < 2 ^ Z.of_nat fuel).
      { rewrite Nat2Z.inj_succ, Z.pow_succ_r in Hlt by lia. nia. }
      specialize (IH b (a mod b) ltac:(lia) Hsmall).
      destruct (egcd fuel b (a mod b)) as [[g x] y]. destruct IH as [E G].
      split.
      * rewrite <- E. rewrite Hdm at 1. ring.
      * rewrite G. rewrite Z.gcd_comm. rewrite Z.gcd_mod by lia. apply Z.gcd_comm.
Qed.

Lemma egcd_fuel_enough m a : 1 < m -> 0 <= a < m -> m * a < 2 ^ Z.of_nat (egcd_fuel m).
Proof.
  intros Hm Ha. unfold egcd_fuel.
  pose proof (Z.log2_up_spec m Hm) as [_ Hup].
  pose proof (Z.log2_up_nonneg m).
  rewrite Z2Nat.id by lia.
  replace (2 * Z.log2_up m + 3) with (Z.log2_up m + Z.log2_up m + 3) by ring.
  rewrite !Z.pow_add_r by lia.
  assert (0 < 2 ^ Z.log2_up m) by (apply Z.pow_pos_nonneg; lia).
  change (2 ^ 3) with 8. nia.
Qed.

(* mpz_invert on a prime modulus *)
Lemma zinvert_spec p a : prime p -> a mod p <> 0 ->
  0 <= zinvert a p < p /\ (a * zinvert a p) mod p = 1.
Proof.
  intros Hp Ha.
  assert (Hp1 : 1 < p) by (destruct Hp; lia).
  pose proof (Z.mod_pos_bound a p ltac:(lia)) as Hb.
  unfold zinvert.
  pose proof (egcd_spec (egcd_fuel p) p (a mod p) ltac:(lia)
                (egcd_fuel_enough p (a mod p) Hp1 ltac:(lia))) as H.
  destruct (egcd (egcd_fuel p) p (a mod p)) as [[g x] y]. destruct H as [E G].
  assert (Hg : g = 1).
  { rewrite G. apply Zgcd_1_rel_prime. apply prime_rel_prime; auto.
    intros D. apply Z.divide_pos_le in D; lia. }
  subst g. rewrite Hg in *. rewrite Z.eqb_refl.
  split; [apply Z.mod_pos_bound; lia|].
  rewrite Z.mul_mod_idemp_r by lia.
  rewrite <- Z.mul_mod_idemp_l by lia.
  replace (a mod p * y) with (1 + (- x) * p) by lia.
  rewrite Z.mod_add by lia. apply Z.mod_small; lia.
Qed.

Lemma zinvert_spec' p a : prime p -> 0 < a < p ->
  0 <= zinvert a p < p /\ (a * zinvert a p) mod p = 1.
Proof. intros Hp Ha. apply zinvert_spec; auto. rewrite Z.mod_small; lia. Qed.

Lemma zinvert_unit p a : prime p -> 0 < a < p -> (a * zinvert a p) mod p = 1 mod p.
Proof.
  intros Hp Ha. destruct (zinvert_spec' p a Hp Ha) as [_ ->].
  symmetry. apply Z.mod_small. destruct Hp; lia.
Qed.

Lemma zinvert_nonzero p a : prime p -> a mod p <> 0 -> zinvert a p mod p <> 0.
Proof.
  intros Hp Ha. destruct (zinvert_spec p a Hp Ha) as [Hr Hi].
  assert (Hp1 : 1 < p) by (destruct Hp; lia).
  intros Z0. rewrite Z.mod_small in Z0 by lia. rewrite Z0, Z.mul_0_r, Z.mod_0_l in Hi; lia.
Qed.
