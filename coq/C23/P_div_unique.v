(* C23 obligation: quotient and remainder are unique, so gf_div, operator/= and operator%= agree with each other and with any other correct division. *)
From SE Require Import C23.GFSpec C23.GFProofsDiv.
Local Open Scope Z_scope.
Theorem C23_div_unique :
  forall (p : Z) (g q r q' r' : list Z), prime p -> wf p g -> g <> [] ->
    wf p q -> wf p r -> wf p q' -> wf p r' ->
    peqm p (padd (pmul q g) r) (padd (pmul q' g) r') ->
    (length r < length g)%nat -> (length r' < length g)%nat -> q = q' /\ r = r'.
Proof. exact div_unique. Qed.
Print Assumptions C23_div_unique.
