(* C23 obligation: gf_div: for every prime p and all canonical f, g with g <> 0 the index loops stay inside their vectors and return canonical q, r with f = q*g + r in (Z/p)[x] and deg r < deg g; a zero divisor throws. *)
From SE Require Import C23.GFSpec C23.GFProofsDiv.
Local Open Scope Z_scope.
Theorem C23_div_spec :
  forall (p : Z) (f g : gf), prime p -> wf p f -> wf p g ->
    (g <> [] -> exists q r, gf_div p f g = Ok (q, r) /\ wf p q /\ wf p r /\
                 peqm p f (padd (pmul q g) r) /\ (length r < length g)%nat) /\
    (g = [] -> gf_div p f g = ErrExn EXN_DIVZERO).
Proof. exact (fun p f g Hp Hf Hg => conj (gf_div_spec p f g Hp Hf Hg) (fun E => eq_ind_r (fun g0 => gf_div p f g0 = ErrExn EXN_DIVZERO) (gf_div_zero p f) E)). Qed.
Print Assumptions C23_div_spec.
