(* C23 obligation: gf_diff: canonical, equal to the formal derivative. *)
From SE Require Import C23.GFSpec C23.GFProofsRing.
Local Open Scope Z_scope.
Theorem C23_diff_spec :
  forall (p : Z) (a : gf), 0 < p -> wf p (gf_diff p a) /\ peqm p (gf_diff p a) (pdiff a).
Proof. exact gf_diff_spec. Qed.
Print Assumptions C23_diff_spec.
