(* C23 obligation: operator/=(polynomial): returns the quotient of the division with remainder (its own loop, rounds it >= deg g only). *)
From SE Require Import C23.GFSpec C23.GFProofsDiv.
Local Open Scope Z_scope.
Theorem C23_quo_spec :
  forall (p : Z) (f g : gf), prime p -> wf p f -> wf p g -> g <> [] ->
    exists q r, gf_quo p f g = Ok q /\ wf p q /\ wf p r /\
      peqm p f (padd (pmul q g) r) /\ (length r < length g)%nat.
Proof. exact gf_quo_spec. Qed.
Print Assumptions C23_quo_spec.
