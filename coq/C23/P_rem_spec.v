(* C23 obligation: operator%=(polynomial): returns the remainder of the division with remainder. *)
From SE Require Import C23.GFSpec C23.GFProofsDiv.
Local Open Scope Z_scope.
Theorem C23_rem_spec :
  forall (p : Z) (f g : gf), prime p -> wf p f -> wf p g -> g <> [] ->
    exists q r, gf_rem p f g = Ok r /\ wf p q /\ wf p r /\
      peqm p f (padd (pmul q g) r) /\ (length r < length g)%nat.
Proof. exact gf_rem_spec. Qed.
Print Assumptions C23_rem_spec.
