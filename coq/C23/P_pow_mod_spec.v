(* C23 obligation: gf_pow_mod: canonical result congruent to f^n modulo m in (Z/p)[x], reduced (degree < deg m) for n >= 1. *)
From SE Require Import C23.GFSpec C23.GFProofsGcd.
Local Open Scope Z_scope.
Theorem C23_pow_mod_spec :
  forall (p : Z) (m f : gf) (n : N), prime p -> wf p m -> m <> [] -> wf p f ->
    exists c, gf_pow_mod p m f n = Ok c /\ wf p c /\ pcong p m c (ppow f (N.to_nat n)) /\
      (n <> 0%N -> (length c < length m)%nat).
Proof. exact gf_pow_mod_spec. Qed.
Print Assumptions C23_pow_mod_spec.
