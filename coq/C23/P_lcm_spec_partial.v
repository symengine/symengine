(* C23 obligation: gf_lcm, PARTIAL.  Full statement: l is the monic least common multiple (f | l, g | l, and l divides every common multiple).  Proved: l is a monic common multiple with f*g = c * l * gcd(f,g) for a unit c; lcm with 0 is 0.  Missing: minimality (needs Bezout coefficients for the gcd). *)
From SE Require Import C23.GFSpec C23.GFProofsGcd.
Local Open Scope Z_scope.
Theorem C23_lcm_spec_partial :
  forall (p : Z) (f g : gf), prime p -> wf p f -> wf p g ->
    (f <> [] -> g <> [] ->
     exists l d c, gf_lcm p f g = Ok l /\ gf_gcd p f g = Ok d /\ wf p l /\ monic l /\
       pdvd p f l /\ pdvd p g l /\ c mod p <> 0 /\ peqm p (pmul f g) (pscale c (pmul l d))) /\
    (f = [] \/ g = [] -> gf_lcm p f g = Ok []).
Proof. exact (fun p f g Hp Hf Hg => conj (gf_lcm_spec_partial p f g Hp Hf Hg) (gf_lcm_zero p f g)). Qed.
Print Assumptions C23_lcm_spec_partial.
