(* C23 obligation: gf_lshift multiplies by x^n; gf_rshift is division with remainder by x^n. *)
From SE Require Import C23.GFSpec C23.GFProofsRing.
Local Open Scope Z_scope.
Theorem C23_shift_spec :
  forall (p : Z) (a : gf) (n : nat), 0 < p -> wf p a ->
    (wf p (gf_lshift p a n) /\ peqm p (gf_lshift p a n) (pshift n a)) /\
    (let '(q, r) := gf_rshift p a n in
     wf p q /\ wf p r /\ peqm p a (padd (pmul q (pshift n [1])) r) /\ (length r <= n)%nat).
Proof. exact (fun p a n Hp Ha => conj (gf_lshift_spec p a n Hp Ha) (gf_rshift_spec p a n Hp Ha)). Qed.
Print Assumptions C23_shift_spec.
