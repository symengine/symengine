(* C23 obligation: operator-= on two polynomials: canonical result equal to the difference in (Z/p)[x]. *)
From SE Require Import C23.GFSpec C23.GFProofsRing.
Local Open Scope Z_scope.
Theorem C23_sub_spec :
  forall (p : Z) (a b : gf), 0 < p -> wf p a -> wf p b ->
    wf p (gf_sub p a b) /\ peqm p (gf_sub p a b) (psub a b).
Proof. exact gf_sub_spec. Qed.
Print Assumptions C23_sub_spec.
