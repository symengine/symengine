(* C23 -- constructors, negation, addition, subtraction, scaling,
   multiplication, shifts, derivative, evaluation, monic. *)
From SE Require Import C23.GFSpec C23.GFPolyLemmas C23.GFArith.
From Coq Require Import Lia Setoid.
Local Open Scope Z_scope.
Local Arguments Z.mul : simpl never.
Local Arguments Z.add : simpl never.
Local Arguments Z.modulo : simpl never.
Local Arguments Z.sub : simpl never.

Lemma istrip_pstrip l : istrip l = pstrip l.
Proof. induction l as [|x r IH]; [reflexivity|]. cbn [istrip pstrip]. rewrite IH. reflexivity. Qed.

Lemma from_vec_pnorm v p : from_vec v p = pnorm p v.
Proof. unfold from_vec, pnorm. apply istrip_pstrip. Qed.

Lemma from_vec_wf p v : 0 < p -> wf p (from_vec v p).
Proof. intros. rewrite from_vec_pnorm. apply pnorm_wf; auto. Qed.

Lemma from_vec_peqm p v : 0 < p -> peqm p (from_vec v p) v.
Proof. intros. rewrite from_vec_pnorm. apply pnorm_peqm; auto. Qed.

Lemma from_vec_id p a : 0 < p -> wf p a -> from_vec a p = a.
Proof. intros. rewrite from_vec_pnorm. apply pnorm_id; auto. Qed.

Lemma istrip_wf p a : reduced p a -> wf p (istrip a).
Proof. intros. rewrite istrip_pstrip. split; [apply reduced_pstrip; auto|apply pstrip_stripped]. Qed.

Lemma istrip_peq a : peq (istrip a) a.
Proof. rewrite istrip_pstrip. apply pstrip_peq. Qed.

(* the coefficient loops of the model compute a schoolbook operation reduced modulo p; followed by
   gf_istrip that is its canonical representative *)
Lemma istrip_map_mod p e : 0 < p ->
  wf p (istrip (map (fun c => c mod p) e)) /\ peqm p (istrip (map (fun c => c mod p) e)) e.
Proof. intros Hp. rewrite istrip_pstrip. exact (conj (pnorm_wf p e Hp) (pnorm_peqm p e Hp)). Qed.

Lemma wf_single p c : 0 < c < p -> wf p [c].
Proof.
  intros H. split.
  - apply reduced_cons. split; [lia|apply reduced_nil].
  - apply stripped_single. lia.
Qed.

Lemma gf_of_int_wf p i : 0 < p -> wf p (gf_of_int i p).
Proof.
  intros Hp. unfold gf_of_int. pose proof (Z.mod_pos_bound i p Hp).
  destruct (i mod p =? 0) eqn:E; [apply wf_nil|]. apply wf_single. lia.
Qed.

Lemma gf_of_int_peqm p i : 0 < p -> peqm p (gf_of_int i p) [i].
Proof.
  intros Hp. unfold gf_of_int.
  destruct (i mod p =? 0) eqn:E.
  - apply Z.eqb_eq in E. symmetry. apply peqm_cons_nil; [rewrite E, Z.mod_0_l; lia|reflexivity].
  - apply peqm_single. apply Z.mod_mod. lia.
Qed.

Lemma stripped_tl x a : stripped (x :: a) -> stripped a.
Proof. destruct a; [intros _; apply stripped_nil|apply stripped_cons_cons]. Qed.

Lemma stripped_cons x a : a <> [] -> stripped a -> stripped (x :: a).
Proof. destruct a; [congruence|intros _; apply stripped_cons_cons]. Qed.

Lemma wf_tl p x a : wf p (x :: a) -> wf p a.
Proof. intros [Hr Hs]. apply reduced_cons in Hr. split; [tauto|exact (stripped_tl x a Hs)]. Qed.

Lemma wf_cons p x a : 0 <= x < p -> wf p a -> a <> [] -> wf p (x :: a).
Proof. intros Hx [Hr Hs] Hne. split; [apply reduced_cons; tauto|apply stripped_cons; assumption]. Qed.

Lemma stripped_app_last a x : x <> 0 -> stripped (a ++ [x]).
Proof.
  intros Hx. unfold stripped. rewrite last_last. exact Hx.
Qed.

Lemma stripped_of_last a : a <> [] -> last a 0 <> 0 -> stripped a.
Proof. intros H1 H2. apply stripped_last; auto. Qed.

Lemma last_app {A} (a b : list A) d : b <> [] -> last (a ++ b) d = last b d.
Proof.
  intros Hb. induction a as [|x a IH]; [reflexivity|].
  cbn [app]. destruct (a ++ b) eqn:E.
  - destruct a; cbn in E; [congruence|discriminate].
  - exact IH.
Qed.

Lemma stripped_skipn n (a : list Z) : stripped a -> stripped (skipn n a).
Proof.
  intros H. destruct (skipn n a) as [|y l] eqn:E; [apply stripped_nil|].
  unfold stripped in *. rewrite <- (firstn_skipn n a), E, last_app in H by discriminate. exact H.
Qed.

Lemma reduced_firstn p n (l : list Z) : reduced p l -> reduced p (firstn n l).
Proof.
  unfold reduced. intros H. rewrite <- (firstn_skipn n l) in H. apply Forall_app in H. tauto.
Qed.

Lemma reduced_skipn p n (l : list Z) : reduced p l -> reduced p (skipn n l).
Proof.
  unfold reduced. intros H. rewrite <- (firstn_skipn n l) in H. apply Forall_app in H. tauto.
Qed.

Lemma reduced_repeat0 p n : 0 < p -> reduced p (repeat 0 n).
Proof. intros Hp. apply Forall_forall. intros x Hx. apply repeat_spec in Hx. lia. Qed.

Lemma peq_repeat0 n : peq (repeat 0 n) [].
Proof. intros k. rewrite coef_repeat0, coef_nil. reflexivity. Qed.

(* negate, gf_monic, the division by a constant and the inserted tail of operator-= map a function
   that multiplies by a constant modulo p and stays inside [0,p); their results must stay stripped
   without a call of gf_istrip *)
Lemma last_map (f : Z -> Z) a d : a <> [] -> last (map f a) d = f (last a d).
Proof.
  induction a as [|x a IH]; [congruence|]. intros _.
  destruct a as [|y a]; [reflexivity|]. apply IH. congruence.
Qed.

Lemma last_map_nonzero (f : Z -> Z) a : a <> [] -> (forall x, x <> 0 -> f x <> 0) ->
  last a 0 <> 0 -> last (map f a) 0 <> 0.
Proof. intros Hne Hf H. rewrite last_map by exact Hne. apply Hf, H. Qed.

Lemma map_reduced p (f : Z -> Z) a :
  (forall x, 0 <= x < p -> 0 <= f x < p) -> reduced p a -> reduced p (map f a).
Proof. intros Hf H. apply Forall_map. revert H. apply Forall_impl. exact Hf. Qed.

Lemma map_peqm_pscale p c (f : Z -> Z) a :
  (forall x, f x mod p = (c * x) mod p) -> peqm p (map f a) (pscale c a).
Proof.
  intros Hf. induction a as [|x a IH]; [reflexivity|].
  cbn [map pscale]. apply peqm_cons; [apply Hf|exact IH].
Qed.

Lemma map_wf p (f : Z -> Z) a : 0 < p ->
  (forall x, 0 <= x < p -> 0 <= f x < p) -> (forall x, 0 < x < p -> f x <> 0) ->
  wf p a -> wf p (map f a).
Proof.
  intros Hp Hr Hn Ha. split; [apply map_reduced; [exact Hr|apply Ha]|].
  destruct a as [|x a]; [apply stripped_nil|].
  apply stripped_of_last; [discriminate|]. rewrite last_map by discriminate.
  apply Hn. apply (wf_last_nonzero p _ Hp Ha). discriminate.
Qed.

Lemma negc_range p a : 0 < p -> 0 <= a < p -> 0 <= negc p a < p /\ (a <> 0 -> negc p a <> 0).
Proof. intros Hp Ha. unfold negc. destruct (a * -1 =? 0) eqn:E; lia. Qed.

Lemma negc_mod p a : negc p a mod p = (-1 * a) mod p.
Proof.
  unfold negc. rewrite (Z.mul_comm a). destruct (-1 * a =? 0); [reflexivity|].
  rewrite <- (Z.mul_1_l p) at 1. apply Z_mod_plus_full.
Qed.

Theorem gf_neg_spec p a : 0 < p -> wf p a -> wf p (gf_neg p a) /\ peqm p (gf_neg p a) (popp a).
Proof.
  intros Hp Ha. split; [|apply map_peqm_pscale, negc_mod].
  apply map_wf; [exact Hp| | |exact Ha]; intros x Hx; apply (negc_range p x Hp); lia.
Qed.

(* the model tests for zero before it reduces: that does not change the value *)
Lemma addc_eq p x y : addc p x y = (x + y) mod p.
Proof. unfold addc. destruct (Z.eqb_spec (x + y) 0) as [->|_]; [symmetry; apply Zmod_0_l|reflexivity]. Qed.

(* on reduced operands the loop computes the schoolbook sum, reduced (a tail that is copied is reduced already) *)
Lemma add_loop_mod p a : forall b, reduced p a -> reduced p b ->
  add_loop p a b = map (fun c => c mod p) (padd a b).
Proof.
  induction a as [|x a IH]; intros b Ha Hb.
  - cbn [add_loop padd]. rewrite (reduced_map_mod_id p b Hb). destruct b; reflexivity.
  - destruct b as [|y b]; [cbn [add_loop padd]; rewrite (reduced_map_mod_id p _ Ha); reflexivity|].
    apply reduced_cons in Ha. apply reduced_cons in Hb. cbn [add_loop padd map].
    rewrite addc_eq, IH by tauto. reflexivity.
Qed.

Lemma add_loop_length p a : forall b, length (add_loop p a b) = Nat.max (length a) (length b).
Proof.
  induction a as [|x a IH]; intros b.
  - destruct b; reflexivity.
  - destruct b as [|y b]; [cbn [add_loop length]; lia|]. cbn [add_loop length]. rewrite IH. lia.
Qed.

(* operands of different lengths: the last coefficient is the longer operand's *)
Lemma add_loop_stripped p a : forall b, length a <> length b ->
  stripped a -> stripped b -> stripped (add_loop p a b).
Proof.
  induction a as [|x a IH]; intros b L Ha Hb.
  - destruct b; exact Hb.
  - destruct b as [|y b]; [exact Ha|]. cbn [add_loop length] in *.
    apply stripped_cons.
    + intros E. apply (f_equal (@length Z)) in E. rewrite add_loop_length in E. cbn [length] in E. lia.
    + apply IH; [lia|exact (stripped_tl x a Ha)|exact (stripped_tl y b Hb)].
Qed.

Theorem gf_add_spec p a b : 0 < p -> wf p a -> wf p b ->
  wf p (gf_add p a b) /\ peqm p (gf_add p a b) (padd a b).
Proof.
  intros Hp Ha Hb. unfold gf_add.
  destruct b as [|y b].
  { split; [exact Ha|]. rewrite padd_nil_r. reflexivity. }
  destruct a as [|x a].
  { split; [exact Hb|]. reflexivity. }
  pose proof (add_loop_mod p (x :: a) (y :: b) (proj1 Ha) (proj1 Hb)) as Em.
  destruct (length (x :: a) =? length (y :: b))%nat eqn:E.
  - rewrite Em. apply istrip_map_mod, Hp.
  - apply Nat.eqb_neq in E. split; [split|].
    + rewrite Em. apply reduced_map_mod, Hp.
    + apply add_loop_stripped; [exact E|apply Ha|apply Hb].
    + rewrite Em. apply peqm_map_mod.
Qed.

Lemma subc_addc p x y : 0 <= x < p -> 0 <= y < p -> subc p x y = addc p x (negc p y).
Proof.
  intros Hx Hy. unfold subc, addc, negc.
  destruct (y * -1 =? 0) eqn:Ey.
  - replace (x + y * -1) with (x - y) by ring. reflexivity.
  - replace (x + (y * -1 + p)) with (x - y + 1 * p) by ring.
    assert (F : x - y + 1 * p =? 0 = false) by lia. rewrite F, Z_mod_plus_full.
    destruct (x - y =? 0) eqn:E; [|reflexivity].
    apply Z.eqb_eq in E. rewrite E. symmetry. apply Zmod_0_l.
Qed.

Lemma sub_loop_add_loop p a : forall b, reduced p a -> reduced p b ->
  sub_loop p a b = add_loop p a (gf_neg p b).
Proof.
  induction a as [|x a IH]; intros b Ha Hb.
  - cbn [sub_loop add_loop]. transitivity (gf_neg p b); [|destruct b; reflexivity].
    apply map_ext. intros y. unfold negc. rewrite <- Z.opp_eq_mul_m1. reflexivity.
  - destruct b as [|y b]; [reflexivity|].
    apply reduced_cons in Ha. apply reduced_cons in Hb. cbn [sub_loop gf_neg map add_loop].
    f_equal; [apply subc_addc; tauto|apply IH; tauto].
Qed.

Theorem gf_sub_add_neg p a b : reduced p a -> reduced p b -> gf_sub p a b = gf_add p a (gf_neg p b).
Proof.
  intros Ha Hb. unfold gf_sub, gf_add.
  destruct b as [|y b]; [reflexivity|]. destruct a as [|x a]; [reflexivity|].
  rewrite (sub_loop_add_loop p _ _ Ha Hb), <- (map_length (negc p) (y :: b)). reflexivity.
Qed.

Theorem gf_sub_spec p a b : 0 < p -> wf p a -> wf p b ->
  wf p (gf_sub p a b) /\ peqm p (gf_sub p a b) (psub a b).
Proof.
  intros Hp Ha Hb. rewrite (gf_sub_add_neg p a b (proj1 Ha) (proj1 Hb)).
  destruct (gf_neg_spec p b Hp Hb) as [Wn Pn].
  destruct (gf_add_spec p a (gf_neg p b) Hp Ha Wn) as [W P].
  split; [exact W|]. rewrite P, Pn. reflexivity.
Qed.

Theorem gf_add_int_spec p a c : 0 < p -> wf p a ->
  wf p (gf_add_int p a c) /\ peqm p (gf_add_int p a c) (padd a [c]).
Proof.
  intros Hp Ha. unfold gf_add_int.
  destruct (Z.eqb_spec c 0) as [->|_].
  { split; [exact Ha|]. rewrite peq_0_nil, padd_nil_r. reflexivity. }
  destruct a as [|x r].
  - exact (conj (gf_of_int_wf p c Hp) (gf_of_int_peqm p c Hp)).
  - pose proof (Z.mod_pos_bound (x + c) p Hp) as Hb.
    destruct r as [|y r]; cbn [padd].
    + exact (istrip_map_mod p [x + c] Hp).
    + split; [|apply peqm_cons; [apply Zmod_mod|reflexivity]].
      apply wf_cons; [lia|exact (wf_tl p x _ Ha)|discriminate].
Qed.

Lemma scale_loop_mod p c a : scale_loop p c a = map (fun x => x mod p) (pscale c a).
Proof.
  unfold scale_loop, pscale. rewrite map_map. apply map_ext. intros x. rewrite (Z.mul_comm c).
  destruct (Z.eqb_spec x 0) as [->|_]; [symmetry; apply Zmod_0_l|reflexivity].
Qed.

Lemma scale_loop_peqm p c a : peqm p (scale_loop p c a) (pscale c a).
Proof. rewrite scale_loop_mod. apply peqm_map_mod. Qed.

Lemma scale_strip_spec p c a : 0 < p ->
  wf p (istrip (scale_loop p c a)) /\ peqm p (istrip (scale_loop p c a)) (pscale c a).
Proof. intros Hp. rewrite scale_loop_mod. apply istrip_map_mod, Hp. Qed.

Theorem gf_mul_int_spec p a c : 0 < p -> wf p a ->
  wf p (gf_mul_int p a c) /\ peqm p (gf_mul_int p a c) (pscale c a).
Proof.
  intros Hp Ha. unfold gf_mul_int. destruct a as [|x a].
  - split; [apply wf_nil|reflexivity].
  - destruct (Z.eqb_spec c 0) as [->|_]; [|apply scale_strip_spec, Hp].
    split; [apply wf_nil|]. rewrite pscale_0. reflexivity.
Qed.

Lemma vget_ok (l : list Z) i : (i < length l)%nat -> vget l i = Ok (coef l i).
Proof.
  intros H. unfold vget, coef.
  destruct (nth_error l i) eqn:E.
  - f_equal. symmetry. apply nth_error_nth. exact E.
  - apply nth_error_None in E. lia.
Qed.

Lemma vupd_length {A} (l : list A) : forall i v, length (vupd l i v) = length l.
Proof. induction l as [|x l IH]; intros [|i] v; cbn; auto. Qed.

Lemma coef_vupd l : forall i v k, (i < length l)%nat ->
  coef (vupd l i v) k = if (k =? i)%nat then v else coef l k.
Proof.
  induction l as [|x l IH]; intros i v k H; [cbn in H; lia|].
  destruct i as [|i]; destruct k as [|k]; cbn [vupd]; try reflexivity.
  - rewrite !coef_cons_S. rewrite IH by (cbn in H; lia). reflexivity.
Qed.

Lemma coef_vupd_same l i v : (i < length l)%nat -> coef (vupd l i v) i = v.
Proof. intros H. rewrite coef_vupd, Nat.eqb_refl by exact H. reflexivity. Qed.

Lemma coef_vupd_other l i v k : (i < length l)%nat -> k <> i -> coef (vupd l i v) k = coef l k.
Proof. intros H Hk. rewrite coef_vupd by exact H. apply Nat.eqb_neq in Hk. rewrite Hk. reflexivity. Qed.

Lemma skipn_vupd {A} m : forall (l : list A) i v, (i < m)%nat -> skipn m (vupd l i v) = skipn m l.
Proof.
  induction m as [|m IH]; intros [|x l] [|i] v H; try reflexivity; try lia.
  cbn [vupd skipn]. apply IH. lia.
Qed.

Lemma vset_ok (l : list Z) i v : (i < length l)%nat -> vset l i v = Ok (vupd l i v).
Proof. intros H. unfold vset. apply Nat.ltb_lt in H. rewrite H. reflexivity. Qed.

Lemma reduced_vupd p l : forall i v, reduced p l -> 0 <= v < p -> reduced p (vupd l i v).
Proof.
  induction l as [|x l IH]; intros i v H Hv; [destruct i; apply reduced_nil|].
  apply reduced_cons in H. destruct i as [|i]; cbn [vupd]; apply reduced_cons; [tauto|].
  split; [tauto|apply IH; tauto].
Qed.

(* acc[n] = (acc[n] + v) mod p  adds  v X^n *)
Lemma vupd_add_peqm p acc n v : (n < length acc)%nat ->
  peqm p (vupd acc n ((coef acc n + v) mod p)) (padd acc (pshift n [v])).
Proof.
  intros H k. rewrite coef_padd, coef_pshift.
  destruct (Nat.eq_dec k n) as [->|Hk].
  - rewrite coef_vupd_same, Nat.ltb_irrefl, Nat.sub_diag by exact H. apply Zmod_mod.
  - rewrite coef_vupd_other by assumption.
    destruct (Nat.ltb_spec k n); [|rewrite (coef_overflow [v]) by (cbn [length]; lia)];
      rewrite Z.add_0_r; reflexivity.
Qed.

(* one round of the inner loop: acc[n] = (acc[n] + v) mod p, skipped when v = 0 *)
Lemma mul_acc_spec p acc n v : 0 < p -> (n < length acc)%nat -> reduced p acc ->
  exists acc', (if v =? 0 then Ok acc
                else bind (vget acc n) (fun t => vset acc n ((t + v) mod p))) = Ok acc' /\
    length acc' = length acc /\ reduced p acc' /\ peqm p acc' (padd acc (pshift n [v])).
Proof.
  intros Hp Hn Hred. destruct (Z.eqb_spec v 0) as [->|_].
  - exists acc. repeat split; auto. rewrite peq_0_nil, pshift_nil, padd_nil_r. reflexivity.
  - rewrite vget_ok by exact Hn. cbn [bind]. rewrite vset_ok by exact Hn.
    eexists. split; [reflexivity|]. split; [apply vupd_length|].
    split; [apply reduced_vupd; [auto|apply Z.mod_pos_bound; lia]|].
    apply vupd_add_peqm, Hn.
Qed.

(* the inner loop adds ai * bs, shifted by i + j, to the accumulator *)
Lemma mul_inner_spec p ai i : 0 < p -> forall bs j acc,
  (i + j + length bs <= length acc)%nat -> reduced p acc ->
  exists acc', mul_inner p ai i bs j acc = Ok acc' /\ length acc' = length acc /\ reduced p acc' /\
    peqm p acc' (padd acc (pshift (i + j) (pscale ai bs))).
Proof.
  intros Hp. induction bs as [|bj bs IH]; intros j acc Hlen Hred.
  - exists acc. cbn [mul_inner pscale map]. repeat split; auto.
    rewrite pshift_nil, padd_nil_r. reflexivity.
  - cbn [mul_inner]. cbn [length] in Hlen.
    destruct (mul_acc_spec p acc (i + j) (ai * bj) Hp ltac:(lia) Hred) as (a1 & -> & L1 & R1 & P1).
    cbn [bind].
    destruct (IH (S j) a1 ltac:(lia) R1) as (acc' & E2 & L2 & R2 & P2).
    exists acc'. split; [exact E2|]. split; [lia|]. split; [exact R2|].
    rewrite P2, P1. apply peq_peqm. change (pscale ai (bj :: bs)) with (ai * bj :: pscale ai bs).
    rewrite (pshift_cons (i + j) (ai * bj) (pscale ai bs)). replace (i + S j)%nat with (i + j + 1)%nat by lia. ring.
Qed.

Lemma mul_outer_spec p b : 0 < p -> forall as_ i acc,
  (i + length as_ + length b <= length acc + 1)%nat -> reduced p acc -> b <> [] ->
  exists acc', mul_outer p as_ b i acc = Ok acc' /\ length acc' = length acc /\ reduced p acc' /\
    peqm p acc' (padd acc (pshift i (pmul as_ b))).
Proof.
  intros Hp. induction as_ as [|ai as_ IH]; intros i acc Hlen Hred Hb.
  - exists acc. cbn [mul_outer pmul]. repeat split; auto.
    rewrite pshift_nil, padd_nil_r. reflexivity.
  - cbn [mul_outer]. cbn [length] in Hlen.
    pose proof (length_nonnil b Hb) as Lb.
    destruct (mul_inner_spec p ai i Hp b O acc ltac:(lia) Hred) as (a1 & -> & L1 & R1 & P1).
    cbn [bind].
    destruct (IH (S i) a1 ltac:(lia) R1 Hb) as (acc' & E2 & L2 & R2 & P2).
    exists acc'. split; [exact E2|]. split; [lia|]. split; [exact R2|].
    rewrite P2, P1, Nat.add_0_r. apply peq_peqm. cbn [pmul].
    change (0 :: pmul as_ b) with (pshift 1 (pmul as_ b)).
    rewrite pshift_padd, pshift_pshift, Nat.add_1_r. ring.
Qed.

Theorem gf_mul_spec p a b : 0 < p -> wf p a -> wf p b -> computes p (gf_mul p a b) (pmul a b).
Proof.
  intros Hp Ha Hb. unfold computes, gf_mul.
  destruct a as [|x a].
  { exists []. split; [reflexivity|]. split; [apply wf_nil|reflexivity]. }
  destruct b as [|y b].
  { exists []. split; [reflexivity|]. split; [apply wf_nil|]. rewrite pmul_nil_r. reflexivity. }
  destruct (mul_outer_spec p (y :: b) Hp (x :: a) O (repeat 0 (degree (x :: a) + degree (y :: b) + 1)))
    as (acc & E & L & R & P).
  - rewrite repeat_length. cbn [degree length Nat.pred]. lia.
  - apply reduced_repeat0; auto.
  - discriminate.
  - rewrite E. cbn [bind]. exists (istrip acc). split; [reflexivity|].
    split; [apply istrip_wf, R|]. rewrite istrip_peq, P, pshift_0, peq_repeat0, padd_nil_l. reflexivity.
Qed.

Theorem gf_mul_assign_spec p a b : 0 < p -> wf p a -> wf p b ->
  computes p (gf_mul_assign p a b) (pmul a b).
Proof.
  intros Hp Ha Hb. unfold gf_mul_assign.
  destruct a as [|x a].
  { exists []. split; [reflexivity|]. split; [apply wf_nil|reflexivity]. }
  destruct b as [|c [|y b]].
  - exists []. split; [reflexivity|]. split; [apply wf_nil|]. rewrite pmul_nil_r. reflexivity.
  - destruct (scale_strip_spec p c (x :: a) Hp) as [W P].
    eexists. split; [reflexivity|]. split; [exact W|].
    rewrite P, pmul_comm, <- pscale_as_pmul. reflexivity.
  - apply gf_mul_spec; auto.
Qed.

Theorem gf_sqr_spec p a : 0 < p -> wf p a -> computes p (gf_sqr p a) (pmul a a).
Proof. intros. apply gf_mul_spec; auto. Qed.

Theorem gf_lshift_spec p a n : 0 < p -> wf p a ->
  wf p (gf_lshift p a n) /\ peqm p (gf_lshift p a n) (pshift n a).
Proof.
  intros Hp Ha. unfold gf_lshift. destruct a as [|x a].
  - split; [apply wf_nil|]. rewrite pshift_nil. reflexivity.
  - split; [|reflexivity]. split.
    + apply Forall_app. split; [apply reduced_repeat0; auto|apply Ha].
    + unfold stripped. rewrite last_app by congruence. apply Ha.
Qed.

Lemma firstn_skipn_peq n (a : list Z) : peq a (padd (firstn n a) (pshift n (skipn n a))).
Proof.
  intros k. rewrite coef_padd, coef_pshift, coef_firstn, coef_skipn.
  destruct (Nat.ltb_spec k n); [lia|]. replace (n + (k - n))%nat with k by lia. lia.
Qed.

Theorem gf_rshift_spec p a n : 0 < p -> wf p a ->
  let '(q, r) := gf_rshift p a n in
  wf p q /\ wf p r /\ peqm p a (padd (pmul q (pshift n [1])) r) /\ (length r <= n)%nat.
Proof.
  intros Hp Ha. unfold gf_rshift.
  destruct (Nat.ltb_spec n (length a)) as [E|E].
  - split; [|split; [apply from_vec_wf; auto|split]].
    + split; [apply reduced_skipn|apply stripped_skipn]; apply Ha.
    + rewrite from_vec_peqm by auto. rewrite pmul_comm, <- pshift_as_pmul, padd_comm.
      apply peq_peqm. apply firstn_skipn_peq.
    + rewrite from_vec_pnorm. etransitivity; [apply length_pnorm_le|]. rewrite firstn_length. lia.
  - split; [apply wf_nil|]. split; [exact Ha|].
    split; [|exact E]. cbn. reflexivity.
Qed.

Lemma diff_loop_mod p : forall l i, diff_loop p i l = map (fun c => c mod p) (pdiff_from i l).
Proof.
  induction l as [|c l IH]; intros i; [reflexivity|].
  cbn [diff_loop pdiff_from map]. rewrite IH. f_equal.
  destruct (Z.eqb_spec c 0) as [->|_]; [rewrite Z.mul_0_r; symmetry; apply Zmod_0_l|reflexivity].
Qed.

Theorem gf_diff_spec p a : 0 < p ->
  wf p (gf_diff p a) /\ peqm p (gf_diff p a) (pdiff a).
Proof. intros Hp. unfold gf_diff. rewrite diff_loop_mod. apply istrip_map_mod, Hp. Qed.

Theorem gf_eval_spec p a x : 0 < p -> gf_eval p a x = peval a x mod p.
Proof.
  intros Hp. induction a as [|c a IH]; [reflexivity|].
  cbn [gf_eval fold_right peval]. fold (gf_eval p a x). fold (peval a x).
  rewrite IH, Z.add_comm, (Z.mul_comm _ x).
  apply Zplus_eqm; [reflexivity|]. apply Zmult_eqm; [reflexivity|apply Zmod_mod].
Qed.

Lemma gf_eval_range p a x : 0 < p -> 0 <= gf_eval p a x < p.
Proof. intros Hp. rewrite gf_eval_spec by auto. apply Z.mod_pos_bound; auto. Qed.

Theorem gf_monic_spec p a : prime p -> wf p a -> a <> [] ->
  let '(lc, m) := gf_monic p a in
  lc = last a 0 /\ wf p m /\ monic m /\ length m = length a /\
  peqm p a (pscale lc m) /\ peqm p m (pscale (zinvert lc p) a).
Proof.
  intros Hp Ha Hne. pose proof (prime_pos p Hp) as Hp0.
  destruct (wf_last_nonzero p a Hp0 Ha Hne) as [_ Hl].
  pose proof (zinvert_unit p _ Hp Hl) as Hu.
  unfold gf_monic. destruct a as [|x a']; [congruence|]. remember (x :: a') as a.
  destruct (Z.eqb_spec (last a 0) 1) as [E|_].
  - split; [reflexivity|]. split; [exact Ha|]. split; [exact E|]. split; [reflexivity|].
    rewrite E in *. rewrite pscale_1. split; [reflexivity|].
    rewrite <- (pscale_unit p 1 (zinvert 1 p) a Hu) at 1. rewrite pscale_1. reflexivity.
  - set (inv := zinvert (last a 0) p) in *. set (m := map (fun x0 => (inv * x0) mod p) a).
    assert (Pm : peqm p m (pscale inv a)) by (apply map_peqm_pscale; intros; apply Zmod_mod).
    assert (Hm : last m 0 = 1).
    { unfold m. rewrite last_map by exact Hne. rewrite Z.mul_comm.
      apply (zinvert_spec' p (last a 0) Hp Hl). }
    split; [reflexivity|]. split; [|split; [exact Hm|split; [apply map_length|split; [|exact Pm]]]].
    + split; [apply map_reduced; [intros; apply Z.mod_pos_bound; exact Hp0|apply Ha]|].
      apply stripped_of_last; [subst a; discriminate|]. rewrite Hm. lia.
    + rewrite Pm. symmetry. apply pscale_unit, Hu.
Qed.
