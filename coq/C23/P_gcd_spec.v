(* C23 obligation: gf_gcd (Euclid's loop on operator%=, then gf_monic): terminates within its fuel for all inputs and returns the monic greatest common divisor (divides both; every common divisor divides it); gcd(0,0) = 0. *)
From SE Require Import C23.GFSpec C23.GFProofsGcd.
Local Open Scope Z_scope.
Theorem C23_gcd_spec :
  forall (p : Z) (f g : gf), prime p -> wf p f -> wf p g ->
    exists d, gf_gcd p f g = Ok d /\ wf p d /\
      (pdvd p d f /\ pdvd p d g /\ forall e, pdvd p e f -> pdvd p e g -> pdvd p e d) /\
      ((f = [] /\ g = []) -> d = []) /\ (~ (f = [] /\ g = []) -> monic d).
Proof. exact gf_gcd_spec. Qed.
Print Assumptions C23_gcd_spec.
