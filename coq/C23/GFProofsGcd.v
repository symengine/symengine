(* C23 -- gcd, lcm, powers, modular powers, composition modulo a polynomial. *)
From SE Require Import C23.GFSpec C23.GFPolyLemmas C23.GFArith C23.GFProofsRing C23.GFProofsDiv.
From Coq Require Import Lia Setoid.
Local Open Scope Z_scope.
Local Arguments Z.mul : simpl never.
Local Arguments Z.add : simpl never.
Local Arguments Z.modulo : simpl never.
Local Arguments Z.sub : simpl never.

Lemma is_gcd_step p f g q r d : peqm p f (padd (pmul q g) r) -> is_gcd p d g r -> is_gcd p d f g.
Proof.
  intros S (D1 & D2 & D3). split; [|split].
  - rewrite S. apply pdvd_padd; [apply pdvd_pmul_l; exact D1|exact D2].
  - exact D1.
  - intros e E1 E2. apply D3; [exact E2|].
    assert (R : peqm p r (psub f (pmul q g))) by (rewrite S; pring).
    rewrite R. apply pdvd_psub; [exact E1|apply pdvd_pmul_l; exact E2].
Qed.

(* a gcd stays one when it is multiplied by a unit *)
Lemma is_gcd_associate p c c' d d' f g :
  (c * c') mod p = 1 mod p -> peqm p d' (pscale c d) -> is_gcd p d f g -> is_gcd p d' f g.
Proof.
  intros U E (D1 & D2 & D3). split; [|split].
  - rewrite E. apply (pdvd_unit_scale_l p c c'); assumption.
  - rewrite E. apply (pdvd_unit_scale_l p c c'); assumption.
  - intros e E1 E2. rewrite E. apply (pdvd_unit_scale_r p c c'); [exact U|]. apply D3; assumption.
Qed.

Lemma gcd_loop_spec p : prime p -> forall fuel f g, wf p f -> wf p g -> (length g < fuel)%nat ->
  exists d, gcd_loop p fuel f g = Ok d /\ wf p d /\ is_gcd p d f g /\ (d = [] -> f = [] /\ g = []).
Proof.
  intros Hp. induction fuel as [|fuel IH]; intros f g Hf Hg Hlen; [lia|].
  destruct g as [|y g'].
  - exists f. cbn [gcd_loop]. split; [reflexivity|]. split; [exact Hf|]. split; [|tauto].
    split; [apply pdvd_refl|]. split; [apply pdvd_nil|]. tauto.
  - remember (y :: g') as g. assert (Hgne : g <> []) by (subst; congruence).
    assert (X : gcd_loop p (S fuel) f g = bind (gf_rem p f g) (fun r => gcd_loop p fuel g r)).
    { subst g. reflexivity. }
    rewrite X. clear X.
    destruct (gf_rem_spec p f g Hp Hf Hg Hgne) as (q & r & E & Wq & Wr & S & L).
    rewrite E. cbn [bind].
    destruct (IH g r Hg Wr ltac:(lia)) as (d & Ed & Wd & Gd & Nd).
    exists d. split; [exact Ed|]. split; [exact Wd|]. split.
    + eapply is_gcd_step; eauto.
    + intros Dn. destruct (Nd Dn) as [G0 _]. congruence.
Qed.

Theorem gf_gcd_spec p f g : prime p -> wf p f -> wf p g ->
  exists d, gf_gcd p f g = Ok d /\ wf p d /\ is_gcd p d f g /\
    ((f = [] /\ g = []) -> d = []) /\ (~ (f = [] /\ g = []) -> monic d).
Proof.
  intros Hp Hf Hg. pose proof (prime_pos p Hp) as Hp0.
  unfold gf_gcd.
  destruct (gcd_loop_spec p Hp (S (length g)) f g Hf Hg ltac:(lia)) as (d & Ed & Wd & Gd & Nd).
  rewrite Ed. cbn [bind].
  destruct d as [|z d'].
  - exists []. cbn. split; [reflexivity|]. split; [apply wf_nil|]. split; [exact Gd|].
    split; [tauto|]. intros H. exfalso. apply H. apply Nd. reflexivity.
  - remember (z :: d') as d. assert (Hdne : d <> []) by (subst; congruence).
    pose proof (gf_monic_spec p d Hp Wd Hdne) as M.
    destruct (gf_monic p d) as [lc md]. destruct M as (-> & Wm & Mm & _ & _ & S2).
    exists md. cbn [snd]. split; [reflexivity|]. split; [exact Wm|]. split; [|split].
    + apply (is_gcd_associate p (zinvert (last d 0) p) (last d 0) d md f g); [|exact S2|exact Gd].
      rewrite Z.mul_comm. apply zinvert_unit; [exact Hp|].
      apply (wf_last_nonzero p d Hp0 Wd Hdne).
    + (* on f = g = [] the loop returns f, and d is not empty *)
      intros [-> ->]. cbn in Ed. congruence.
    + intros _. exact Mm.
Qed.

Lemma ppow_sq a n : peq (ppow (pmul a a) n) (ppow a (2 * n)).
Proof.
  rewrite ppow_pmul. replace (2 * n)%nat with (n + n)%nat by lia. rewrite ppow_add. reflexivity.
Qed.

Lemma computes_peqm p r e e' : peqm p e e' -> computes p r e -> computes p r e'.
Proof. intros H (c & E & W & P). exists c. rewrite <- H. auto. Qed.

Lemma pow_loop_spec p : 0 < p -> forall num to_sq to_ret, wf p to_sq -> wf p to_ret ->
  computes p (pow_loop p num to_sq to_ret) (pmul to_ret (ppow to_sq (Pos.to_nat num))).
Proof.
  intros Hp. induction num as [n' IH|n' IH|]; intros sq ret Wsq Wret; cbn [pow_loop].
  - destruct (gf_mul_assign_spec p ret sq Hp Wret Wsq) as (r & -> & Wr & Pr). cbn [bind].
    destruct (gf_sqr_spec p sq Hp Wsq) as (s & -> & Ws & Ps). cbn [bind].
    apply (computes_peqm p _ (pmul r (ppow s (Pos.to_nat n')))); [|apply IH; assumption].
    rewrite Pr, Ps, Pos2Nat.inj_xI, ppow_sq. cbn [ppow]. pring.
  - destruct (gf_sqr_spec p sq Hp Wsq) as (s & -> & Ws & Ps). cbn [bind].
    apply (computes_peqm p _ (pmul ret (ppow s (Pos.to_nat n')))); [|apply IH; assumption].
    rewrite Ps, Pos2Nat.inj_xO, ppow_sq. reflexivity.
  - apply (computes_peqm p _ (pmul ret sq)); [|apply gf_mul_assign_spec; assumption].
    change (Pos.to_nat 1) with 1%nat. rewrite ppow_1. reflexivity.
Qed.

Theorem gf_pow_spec p f n : 1 < p -> wf p f ->
  computes p (gf_pow p f n) (ppow f (N.to_nat n)).
Proof.
  intros Hp Wf. assert (Hp0 : 0 < p) by lia.
  pose proof (gf_of_int_wf p 1 Hp0) as W1. pose proof (gf_of_int_peqm p 1 Hp0) as P1.
  assert (Loop : forall num, computes p (pow_loop p num f (gf_of_int 1 p)) (ppow f (Pos.to_nat num))).
  { intros num. apply (computes_peqm p _ (pmul (gf_of_int 1 p) (ppow f (Pos.to_nat num))));
      [|apply pow_loop_spec; assumption].
    rewrite P1, pmul_1_l. reflexivity. }
  destruct n as [|[[q|q|]|[q|q|]|]]; cbn [gf_pow N.to_nat]; try apply Loop.
  - exists (gf_of_int 1 p). split; [reflexivity|]. split; [exact W1|exact P1].
  - apply (computes_peqm p _ (pmul f f)); [|apply gf_sqr_spec; assumption].
    change (Pos.to_nat 2) with 2%nat. cbn [ppow]. rewrite pmul_1_r. reflexivity.
  - exists f. split; [reflexivity|]. split; [exact Wf|].
    change (Pos.to_nat 1) with 1%nat. rewrite ppow_1. reflexivity.
Qed.

(* the result of an operation followed by a reduction modulo m *)
Definition computes_mod (p : Z) (m : list Z) (r : res gf) (e : list Z) : Prop :=
  exists c, r = Ok c /\ wf p c /\ pcong p m c e /\ (length c < length m)%nat.

Lemma computes_mod_pcong p m r e e' : pcong p m e e' -> computes_mod p m r e -> computes_mod p m r e'.
Proof. intros H (c & E & W & P & L). exists c. rewrite <- H. auto. Qed.

Lemma gf_rem_pcong p f m : prime p -> wf p f -> wf p m -> m <> [] -> computes_mod p m (gf_rem p f m) f.
Proof.
  intros Hp Hf Hm Hne.
  destruct (gf_rem_spec p f m Hp Hf Hm Hne) as (q & r & E & Wq & Wr & S & L).
  exists r. split; [exact E|]. split; [exact Wr|]. split; [|exact L].
  exists (popp q). rewrite S. pring.
Qed.

Lemma rem_after p m r e : prime p -> wf p m -> m <> [] -> computes p r e ->
  computes_mod p m (bind r (fun h => gf_rem p h m)) e.
Proof.
  intros Hp Wm Hne (h & -> & Wh & Ph). cbn [bind].
  apply (computes_mod_pcong p m _ h); [apply pcong_peqm, Ph|apply gf_rem_pcong; assumption].
Qed.

Lemma mul_rem_spec p m a b : prime p -> wf p m -> m <> [] -> wf p a -> wf p b ->
  computes_mod p m (bind (gf_mul_assign p a b) (fun h1 => gf_rem p h1 m)) (pmul a b).
Proof.
  intros Hp Wm Hne Wa Wb. apply rem_after; try assumption.
  apply gf_mul_assign_spec; [apply prime_pos|..]; assumption.
Qed.

Lemma sqr_mod_spec p m a : prime p -> wf p m -> m <> [] -> wf p a ->
  computes_mod p m (bind (gf_sqr p a) (fun s => gf_mod p s m)) (pmul a a).
Proof.
  intros Hp Wm Hne Wa. apply rem_after; try assumption.
  apply gf_sqr_spec; [apply prime_pos|]; assumption.
Qed.

Lemma bind_assoc {A B C} (r : res A) (f : A -> res B) (g : B -> res C) :
  bind (bind r f) g = bind r (fun x => bind (f x) g).
Proof. destruct r; reflexivity. Qed.

Lemma pow_mod_loop_spec p m : prime p -> wf p m -> m <> [] ->
  forall num inn h, wf p inn -> wf p h ->
  computes_mod p m (pow_mod_loop p m num inn h) (pmul h (ppow inn (Pos.to_nat num))).
Proof.
  intros Hp Wm Hne. induction num as [n' IH|n' IH|]; intros inn h Wi Wh; cbn [pow_mod_loop].
  - rewrite <- bind_assoc.
    destruct (mul_rem_spec p m h inn Hp Wm Hne Wh Wi) as (h2 & -> & W2 & C2 & _). cbn [bind].
    rewrite <- bind_assoc.
    destruct (sqr_mod_spec p m inn Hp Wm Hne Wi) as (i2 & -> & Wi2 & Ci & _). cbn [bind].
    apply (computes_mod_pcong p m _ (pmul h2 (ppow i2 (Pos.to_nat n')))); [|apply IH; assumption].
    rewrite C2, Ci, Pos2Nat.inj_xI. apply pcong_peq. rewrite ppow_sq. cbn [ppow]. ring.
  - rewrite <- bind_assoc.
    destruct (sqr_mod_spec p m inn Hp Wm Hne Wi) as (i2 & -> & Wi2 & Ci & _). cbn [bind].
    apply (computes_mod_pcong p m _ (pmul h (ppow i2 (Pos.to_nat n')))); [|apply IH; assumption].
    rewrite Ci, Pos2Nat.inj_xO. apply pcong_peq. rewrite ppow_sq. reflexivity.
  - apply (computes_mod_pcong p m _ (pmul h inn)); [|apply mul_rem_spec; assumption].
    change (Pos.to_nat 1) with 1%nat. apply pcong_peq. rewrite ppow_1. reflexivity.
Qed.

Theorem gf_pow_mod_spec p m f n : prime p -> wf p m -> m <> [] -> wf p f ->
  exists c, gf_pow_mod p m f n = Ok c /\ wf p c /\ pcong p m c (ppow f (N.to_nat n)) /\
    (n <> 0%N -> (length c < length m)%nat).
Proof.
  intros Hp Wm Hne Wf. pose proof (prime_pos p Hp) as Hp0.
  pose proof (from_vec_wf p [1] Hp0) as W1. pose proof (from_vec_peqm p [1] Hp0) as P1.
  assert (Weaken : forall r, computes_mod p m r (ppow f (N.to_nat n)) ->
            exists c, r = Ok c /\ wf p c /\ pcong p m c (ppow f (N.to_nat n)) /\
              (n <> 0%N -> (length c < length m)%nat)).
  { intros r (c & E & W & C & L). exists c. auto. }
  assert (Loop : forall num, computes_mod p m (pow_mod_loop p m num f (from_vec [1] p)) (ppow f (Pos.to_nat num))).
  { intros num. apply (computes_mod_pcong p m _ (pmul (from_vec [1] p) (ppow f (Pos.to_nat num))));
      [|apply pow_mod_loop_spec; assumption].
    apply pcong_peqm. rewrite P1, pmul_1_l. reflexivity. }
  destruct n as [|[[q|q|]|[q|q|]|]]; cbn [gf_pow_mod]; try (apply Weaken, Loop).
  - exists (from_vec [1] p). split; [reflexivity|]. split; [exact W1|]. split; [|congruence].
    apply pcong_peqm. exact P1.
  - apply Weaken. apply (computes_mod_pcong p m _ (pmul f f)); [|apply sqr_mod_spec; assumption].
    apply pcong_peq. change (N.to_nat 2) with 2%nat. cbn [ppow]. rewrite pmul_1_r. reflexivity.
  - apply Weaken. apply (computes_mod_pcong p m _ f); [|apply gf_rem_pcong; assumption].
    apply pcong_peq. change (N.to_nat 1) with 1%nat. rewrite ppow_1. reflexivity.
Qed.

Lemma compose_fold_spec p m h : prime p -> wf p m -> m <> [] -> wf p h ->
  forall rest out suffix, wf p out -> pcong p m out (pcomp suffix h) ->
  exists c, fold_left (compose_step p m h) rest (Ok out) = Ok c /\ wf p c /\
    pcong p m c (pcomp (rev rest ++ suffix) h) /\ (rest <> [] -> (length c < length m)%nat).
Proof.
  intros Hp Wm Hne Wh. pose proof (prime_pos p Hp) as Hp0.
  induction rest as [|gi rest IH]; intros out suffix Wo Co.
  - exists out. cbn. split; [reflexivity|]. split; [exact Wo|]. split; [exact Co|congruence].
  - cbn [fold_left compose_step bind].
    destruct (gf_mul_assign_spec p out h Hp0 Wo Wh) as (o1 & -> & W1 & P1).
    cbn [bind].
    destruct (gf_add_int_spec p o1 gi Hp0 W1) as [W2 P2].
    destruct (gf_rem_pcong p (gf_add_int p o1 gi) m Hp W2 Wm Hne) as (o2 & E2 & W3 & C3 & L3).
    rewrite E2.
    destruct (IH o2 (gi :: suffix) W3) as (c & Ec & Wc & Cc & Lc).
    + rewrite C3, (pcong_peqm p m _ _ P2), (pcong_peqm p m _ _ P1), Co, pcomp_cons.
      apply pcong_peq. ring.
    + exists c. split; [exact Ec|]. split; [exact Wc|]. split.
      * cbn [rev]. rewrite <- app_assoc. exact Cc.
      * intros _. destruct rest as [|g2 rest']; [|apply Lc; congruence].
        cbn in Ec. inversion Ec; subst c. exact L3.
Qed.

Theorem gf_compose_mod_spec p m g h : prime p -> wf p m -> m <> [] -> wf p g -> wf p h ->
  exists c, gf_compose_mod p m g h = Ok c /\ wf p c /\ pcong p m c (pcomp g h) /\
    ((2 <= length g)%nat -> (length c < length m)%nat).
Proof.
  intros Hp Wm Hne Wg Wh. pose proof (prime_pos p Hp) as Hp0.
  unfold gf_compose_mod. pose proof (rev_involutive g) as Eg.
  destruct (rev g) as [|top rest]; cbn [rev] in Eg; subst g.
  - exists []. split; [reflexivity|]. split; [apply wf_nil|]. split; [reflexivity|cbn; lia].
  - destruct (compose_fold_spec p m h Hp Wm Hne Wh rest (from_vec [top] p) [top]) as (c & Ec & Wc & Cc & Lc).
    + apply from_vec_wf; auto.
    + apply pcong_peqm. rewrite from_vec_peqm by auto. rewrite pcomp_const. reflexivity.
    + exists c. split; [exact Ec|]. split; [exact Wc|]. split; [exact Cc|].
      rewrite app_length, rev_length. intros L. apply Lc. destruct rest; [cbn in L; lia|congruence].
Qed.

Theorem gf_quo_exact p f g : prime p -> wf p f -> wf p g -> g <> [] -> pdvd p g f ->
  exists q, gf_quo p f g = Ok q /\ wf p q /\ peqm p f (pmul q g).
Proof.
  intros Hp Wf Wg Hne D.
  destruct (gf_quo_spec p f g Hp Wf Wg Hne) as (q & r & E & Wq & Wr & S & L).
  exists q. split; [exact E|]. split; [exact Wq|].
  assert (Dr : pdvd p g r).
  { assert (R : peqm p r (psub f (pmul q g))) by (rewrite S; pring).
    rewrite R. apply pdvd_psub; [exact D|apply pdvd_self_pmul_l]. }
  pose proof (pdvd_small_zero p g r Hp Wg Hne Dr L) as R0.
  rewrite S, R0, padd_nil_r. reflexivity.
Qed.

Lemma wf_nonnil_nonzero p a : 0 < p -> wf p a -> a <> [] -> ~ peqm p a [].
Proof. intros Hp W Hne Z0. apply Hne. apply (wf_peqm_nil p a Hp W Z0). Qed.

(* partial: the "least" half of lcm (every common multiple is a multiple of l) is not proved *)
Theorem gf_lcm_spec_partial p f g : prime p -> wf p f -> wf p g -> f <> [] -> g <> [] ->
  exists l d c, gf_lcm p f g = Ok l /\ gf_gcd p f g = Ok d /\ wf p l /\ monic l /\
    pdvd p f l /\ pdvd p g l /\ c mod p <> 0 /\ peqm p (pmul f g) (pscale c (pmul l d)).
Proof.
  intros Hp Wf Wg Hf Hg. pose proof (prime_pos p Hp) as Hp0.
  assert (U : gf_lcm p f g = bind (gf_mul p g f) (fun out => bind (gf_gcd p f g) (fun d =>
                bind (gf_quo p out d) (fun q => Ok (snd (gf_monic p q)))))).
  { destruct f; [congruence|]. destruct g; [congruence|]. reflexivity. }
  rewrite U. clear U.
  destruct (gf_mul_spec p g f Hp0 Wg Wf) as (out & -> & Wo & Po). cbn [bind].
  destruct (gf_gcd_spec p f g Hp Wf Wg) as (d & -> & Wd & (D1 & D2 & D3) & _ & Md). cbn [bind].
  assert (Mon : monic d) by (apply Md; intros [X _]; congruence).
  assert (Hdne : d <> []) by (intros X; subst d; cbn in Mon; discriminate).
  assert (Dout : pdvd p d out) by (rewrite Po; apply pdvd_pmul_l; exact D1).
  destruct (gf_quo_exact p out d Hp Wo Wd Hdne Dout) as (q & -> & Wq & Pq). cbn [bind].
  assert (Hgf : ~ peqm p (pmul g f) []).
  { intros Z0. apply pmul_eq_zero in Z0; [|exact Hp].
    destruct Z0 as [Z0|Z0];
      [apply (wf_nonnil_nonzero p g Hp0 Wg Hg Z0)|apply (wf_nonnil_nonzero p f Hp0 Wf Hf Z0)]. }
  assert (Hqne : q <> []).
  { intros X. subst q. apply Hgf. rewrite <- Po, Pq. reflexivity. }
  pose proof (gf_monic_spec p q Hp Wq Hqne) as M.
  destruct (gf_monic p q) as [lc l]. destruct M as (Elc & Wl & Ml & Ll & S1 & S2). cbn [snd].
  destruct (wf_last_nonzero p q Hp0 Wq Hqne) as [Hl1 Hl2].
  exists l, d, lc. split; [reflexivity|]. split; [reflexivity|]. split; [exact Wl|]. split; [exact Ml|].
  assert (Hd0 : ~ peqm p d []) by (apply wf_nonnil_nonzero; auto).
  destruct D1 as [f1 F1]. destruct D2 as [g1 G1].
  (* q d = g f, and d is cancelled from f = d f1 and from g = d g1 *)
  assert (Qf : peqm p q (pmul g f1)).
  { apply (pmul_cancel_l p d); auto.
    rewrite (peq_peqm p _ _ (pmul_comm d q)), <- Pq, Po. rewrite F1 at 1. pring. }
  assert (Qg : peqm p q (pmul g1 f)).
  { apply (pmul_cancel_l p d); auto.
    rewrite (peq_peqm p _ _ (pmul_comm d q)), <- Pq, Po. rewrite G1 at 1. pring. }
  split; [|split; [|split]].
  - rewrite S2. apply pdvd_pscale. rewrite Qg. apply pdvd_self_pmul_l.
  - rewrite S2. apply pdvd_pscale. rewrite Qf. apply pdvd_self_pmul_r.
  - subst lc. exact Hl1.
  - rewrite (peq_peqm p _ _ (pmul_comm f g)), <- Po, Pq. rewrite S1 at 1.
    apply peq_peqm. rewrite pmul_pscale_l. reflexivity.
Qed.

Theorem gf_lcm_zero p f g : f = [] \/ g = [] -> gf_lcm p f g = Ok [].
Proof. intros [H|H]; subst; [reflexivity|]. destruct f; reflexivity. Qed.
