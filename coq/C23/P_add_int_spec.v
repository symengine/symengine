(* C23 obligation: operator+=(integer) / operator-=(integer): canonical result equal to a + c for ALL a and c (including the zero polynomial, repaired in bc03f74). *)
From SE Require Import C23.GFSpec C23.GFProofsRing.
Local Open Scope Z_scope.
Theorem C23_add_int_spec :
  forall (p : Z) (a : gf) (c : Z), 0 < p -> wf p a ->
    (wf p (gf_add_int p a c) /\ peqm p (gf_add_int p a c) (padd a [c])) /\
    (wf p (gf_sub_int p a c) /\ peqm p (gf_sub_int p a c) (padd a [-1 * c])).
Proof. exact (fun p a c Hp Ha => conj (gf_add_int_spec p a c Hp Ha) (gf_add_int_spec p a (-1 * c) Hp Ha)). Qed.
Print Assumptions C23_add_int_spec.
