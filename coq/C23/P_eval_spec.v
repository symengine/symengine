(* C23 obligation: gf_eval (Horner, floor remainder in every step, repaired in da7c58d): for ALL polynomials and ALL integer arguments the value is the polynomial's value reduced into [0,p). *)
From SE Require Import C23.GFSpec C23.GFProofsRing.
Local Open Scope Z_scope.
Theorem C23_eval_spec :
  forall (p : Z) (a : gf) (x : Z), 0 < p ->
    gf_eval p a x = peval a x mod p /\ 0 <= gf_eval p a x < p.
Proof. exact (fun p a x Hp => conj (gf_eval_spec p a x Hp) (gf_eval_range p a x Hp)). Qed.
Print Assumptions C23_eval_spec.
