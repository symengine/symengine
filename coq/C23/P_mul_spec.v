(* C23 obligation: GaloisFieldDict::mul (double loop over a zero-initialised vector with checked accesses): never leaves its vector, canonical result equal to the schoolbook product; operator*= and gf_sqr likewise. *)
From SE Require Import C23.GFSpec C23.GFProofsRing.
Local Open Scope Z_scope.
Theorem C23_mul_spec :
  forall (p : Z) (a b : gf), 0 < p -> wf p a -> wf p b ->
    (exists c, gf_mul p a b = Ok c /\ wf p c /\ peqm p c (pmul a b)) /\
    (exists c, gf_mul_assign p a b = Ok c /\ wf p c /\ peqm p c (pmul a b)) /\
    (exists c, gf_sqr p a = Ok c /\ wf p c /\ peqm p c (pmul a a)).
Proof. exact (fun p a b Hp Ha Hb => conj (gf_mul_spec p a b Hp Ha Hb) (conj (gf_mul_assign_spec p a b Hp Ha Hb) (gf_sqr_spec p a Hp Ha))). Qed.
Print Assumptions C23_mul_spec.
