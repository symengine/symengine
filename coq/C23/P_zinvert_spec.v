(* C23 obligation: the model of mp_invert (extended Euclid on logarithmic fuel) returns the inverse in [0,p) for every prime p and every a not divisible by p. *)
From SE Require Import C23.GFSpec C23.GFArith.
Local Open Scope Z_scope.
Theorem C23_zinvert_spec :
  forall (p a : Z), prime p -> a mod p <> 0 ->
    0 <= zinvert a p < p /\ (a * zinvert a p) mod p = 1.
Proof. exact zinvert_spec. Qed.
Print Assumptions C23_zinvert_spec.
