(* C33 -- arithmetic, primality and sorted-list facts ([Nprime], [primes_upto], [take_le])
   shared by SieveSegment.v, Bertrand.v and SieveProofs.v; no lemma mentions [vec]. *)
From SE Require Import C33.SieveSpec.
From Coq Require Import ZifyN ZifyBool Lia Sorted.
Local Open Scope N_scope.

Lemma uadd_small a b : a + b < W32 -> uadd a b = a + b.
Proof. intros; unfold uadd; apply N.mod_small; auto. Qed.
Lemma umul_small a b : a * b < W32 -> umul a b = a * b.
Proof. intros; unfold umul; apply N.mod_small; auto. Qed.
Lemma usub_small a b : b <= a -> a < W32 -> usub a b = a - b.
Proof. unfold usub, W32. intros. lia. Qed.

Lemma even_true_mod a : N.even a = true -> a mod 2 = 0.
Proof. intros H. apply N.even_spec in H. destruct H as [k ->]. lia. Qed.
Lemma even_false_mod a : N.even a = false -> a mod 2 = 1.
Proof.
  intros H. assert (O : N.odd a = true) by (unfold N.odd; rewrite H; reflexivity).
  apply N.odd_spec in O. destruct O as [k ->]. lia.
Qed.

Lemma divide_mod0 n d : d <> 0 -> (d | n) -> n mod d = 0.
Proof. intros; apply N.mod_divide; auto. Qed.
Lemma mod0_divide n d : d <> 0 -> n mod d = 0 -> (d | n).
Proof. intros; apply N.mod_divide; auto. Qed.

Lemma Nprime_no_divisor n d : Nprime n -> (d | n) -> 1 < d -> d < n -> False.
Proof. intros [_ H] D H1 H2. apply (H d H1 H2). apply divide_mod0; [lia|auto]. Qed.

Lemma least_divisor n : 1 < n ->
  exists d, 1 < d /\ d <= n /\ (d | n) /\ forall e, 1 < e -> e < d -> ~ (e | n).
Proof.
  intros Hn.
  assert (K : forall k,
             (exists d, 1 < d /\ d <= k /\ (d | n) /\ forall e, 1 < e -> e < d -> ~ (e | n))
             \/ (forall e, 1 < e -> e <= k -> ~ (e | n))).
  { induction k using N.peano_ind.
    - right; intros; lia.
    - destruct IHk as [(d & H1 & H2 & H3 & H4) | No].
      + left; exists d; repeat split; auto; lia.
      + destruct (N.eq_dec (n mod N.succ k) 0) as [E | E].
        * destruct (N.le_gt_cases (N.succ k) 1) as [L | L].
          -- right; intros; lia.
          -- left; exists (N.succ k); repeat split; auto; try lia.
             ++ apply mod0_divide; [lia | auto].
             ++ intros e He1 He2; apply No; lia.
        * right; intros e He1 He2.
          destruct (N.eq_dec e (N.succ k)) as [-> | Ne].
          -- intros D; apply E; apply divide_mod0; [lia | auto].
          -- apply No; lia. }
  destruct (K n) as [(d & H1 & H2 & H3 & H4) | No].
  - exists d; auto.
  - exfalso; apply (No n Hn (N.le_refl n)); apply N.divide_refl.
Qed.

Lemma prime_or_factor n : 1 < n ->
  Nprime n \/ exists p, Nprime p /\ (p | n) /\ p * p <= n.
Proof.
  intros Hn. destruct (least_divisor n Hn) as (d & H1 & H2 & H3 & H4).
  assert (Pd : Nprime d).
  { split; auto. intros e He1 He2 M. apply (H4 e He1 He2).
    apply N.divide_trans with d; auto. apply mod0_divide; [lia | auto]. }
  destruct (N.eq_dec d n) as [-> | Ne]; [left; auto | right].
  exists d; split; [exact Pd | split; [exact H3 |]].
  destruct H3 as [k Hk].
  assert (Hk1 : 1 < k).
  { destruct (N.le_gt_cases k 1) as [L | L]; auto.
    assert (k = 0 \/ k = 1) as [-> | ->] by lia; lia. }
  destruct (N.le_gt_cases d k) as [L | L].
  - rewrite Hk. apply N.mul_le_mono_r; auto.
  - exfalso. apply (H4 k Hk1 L). exists d. rewrite Hk. apply N.mul_comm.
Qed.

(* trial division, sound for primality *)
Fixpoint trial (fuel : nat) (d n : N) : bool :=
  match fuel with
  | O => false
  | S f => if n <? d * d then true
           else if n mod d =? 0 then false else trial f (d + 1) n
  end.

Definition is_prime (n : N) : bool :=
  (1 <? n) && trial (S (N.to_nat (N.sqrt n))) 2 n.

Lemma trial_sound fuel : forall d n, trial fuel d n = true ->
  forall e, d <= e -> e * e <= n -> n mod e <> 0.
Proof.
  induction fuel as [| f IH]; intros d n T e He Hee; [discriminate |].
  cbn [trial] in T. destruct (n <? d * d) eqn:E1.
  - assert (d * d <= e * e) by (apply N.mul_le_mono; exact He). lia.
  - destruct (n mod d =? 0) eqn:E2; [discriminate |].
    destruct (N.eq_dec e d) as [-> | Ne]; [lia |]. apply (IH (d + 1) n T); lia.
Qed.

Lemma is_prime_sound n : is_prime n = true -> Nprime n.
Proof.
  unfold is_prime. intros H. apply andb_true_iff in H. destruct H as [H1 H2].
  destruct (prime_or_factor n ltac:(lia)) as [P | (p & [Hp _] & D & Q)]; [exact P | exfalso].
  apply (trial_sound _ 2 n H2 p); [lia | exact Q | apply divide_mod0; [lia | exact D]].
Qed.

(* a prime whose square exceeds 2^31 while staying below 2^32 *)
Lemma prime_46349 : Nprime 46349.
Proof. apply is_prime_sound. vm_compute. reflexivity. Qed.

Lemma prime_odd p : Nprime p -> 2 < p -> p mod 2 = 1.
Proof. intros [_ H] H2. specialize (H 2). lia. Qed.

Lemma odd_coprime_half n t : n mod 2 = 1 -> (n | 2 * t) -> (n | t).
Proof.
  intros Hn D.
  assert (G : N.gcd n 2 = 1).
  { pose proof (N.gcd_divide_l n 2) as Gl. pose proof (N.gcd_divide_r n 2) as Gr.
    set (g := N.gcd n 2) in *.
    assert (g <= 2) by (apply N.divide_pos_le; [lia | auto]).
    assert (g = 0 \/ g = 1 \/ g = 2) as [-> | [-> | ->]] by lia; auto.
    - destruct Gr as [k Hk]. lia.
    - apply divide_mod0 in Gl; lia. }
  apply N.gauss with 2; auto.
Qed.

Section SortedFacts.
  Context {A : Type} (R : A -> A -> Prop).

  Lemma SS_app l1 l2 :
    StronglySorted R l1 -> StronglySorted R l2 ->
    (forall x y, In x l1 -> In y l2 -> R x y) ->
    StronglySorted R (l1 ++ l2).
  Proof.
    induction l1 as [| a l1 IH]; intros S1 S2 H; [exact S2 |].
    apply StronglySorted_inv in S1. destruct S1 as [S1 F1].
    cbn [app]. constructor.
    - apply IH; auto. intros; apply H; [right |]; auto.
    - apply Forall_app; split; auto.
      apply Forall_forall. intros y Hy. apply H; [left |]; auto.
  Qed.

  Lemma SS_rev l :
    StronglySorted (fun a b => R b a) l -> StronglySorted R (rev l).
  Proof.
    induction l as [| a l IH]; intros S; [constructor |].
    apply StronglySorted_inv in S. destruct S as [S F].
    cbn [rev]. apply SS_app; auto.
    - repeat constructor.
    - intros x y Hx [<- | []]. apply in_rev in Hx.
      rewrite Forall_forall in F. apply F; auto.
  Qed.
End SortedFacts.

Lemma SS_lt_head a l x : StronglySorted N.lt (a :: l) -> In x l -> a < x.
Proof.
  intros S Hx. apply StronglySorted_inv in S. destruct S as [_ F].
  rewrite Forall_forall in F; auto.
Qed.

Lemma sorted_ext_eq : forall l1 l2,
  StronglySorted N.lt l1 -> StronglySorted N.lt l2 ->
  (forall x, In x l1 <-> In x l2) -> l1 = l2.
Proof.
  induction l1 as [| a l1 IH]; intros [| b l2] S1 S2 H; auto.
  - exfalso; apply (proj2 (H b)); left; auto.
  - exfalso; apply (proj1 (H a)); left; auto.
  - assert (a = b).
    { destruct (proj1 (H a) (or_introl eq_refl)) as [E | I1]; auto.
      destruct (proj2 (H b) (or_introl eq_refl)) as [E | I2]; auto.
      pose proof (SS_lt_head _ _ _ S2 I1). pose proof (SS_lt_head _ _ _ S1 I2). lia. }
    subst b. f_equal. apply IH.
    + apply StronglySorted_inv in S1; tauto.
    + apply StronglySorted_inv in S2; tauto.
    + intros x; split; intros I.
      * destruct (proj1 (H x) (or_intror I)) as [E | I']; auto.
        pose proof (SS_lt_head _ _ _ S1 I). lia.
      * destruct (proj2 (H x) (or_intror I)) as [E | I']; auto.
        pose proof (SS_lt_head _ _ _ S2 I). lia.
Qed.

Lemma last_in (l : list N) d : l <> [] -> In (last l d) l.
Proof.
  induction l as [| a l IH]; intros H; [congruence |].
  destruct l as [| b l]; [left; auto |].
  right. apply IH. discriminate.
Qed.

Lemma sorted_last_max l x : StronglySorted N.lt l -> In x l -> x <= last l 0.
Proof.
  induction l as [| a l IH]; intros S I; [destruct I |].
  destruct l as [| b l].
  - destruct I as [<- | []]. cbn. lia.
  - assert (S' : StronglySorted N.lt (b :: l)) by (apply StronglySorted_inv in S; tauto).
    change (last (a :: b :: l) 0) with (last (b :: l) 0).
    destruct I as [<- | I]; [| apply IH; auto].
    assert (In (last (b :: l) 0) (b :: l)) by (apply last_in; discriminate).
    pose proof (SS_lt_head _ _ _ S H). lia.
Qed.

Lemma take_le_incl m l x : In x (take_le m l) -> In x l /\ x <= m.
Proof.
  induction l as [| a l IH]; cbn [take_le]; [intros [] |].
  destruct (a <=? m) eqn:E; [| intros []].
  intros [<- | I]; [split; [left; auto | lia] |].
  destruct (IH I); split; auto. right; auto.
Qed.

Lemma take_le_sorted m l : StronglySorted N.lt l -> StronglySorted N.lt (take_le m l).
Proof.
  induction l as [| a l IH]; intros S; cbn [take_le]; [constructor |].
  destruct (a <=? m); [| constructor].
  pose proof S as S0. apply StronglySorted_inv in S. destruct S as [S F]. constructor; auto.
  apply Forall_forall. intros x I. apply take_le_incl in I. destruct I as [I _].
  apply (SS_lt_head _ _ _ S0 I).
Qed.

Lemma take_le_complete m l x :
  StronglySorted N.lt l -> In x l -> x <= m -> In x (take_le m l).
Proof.
  induction l as [| a l IH]; intros S I Hx; [destruct I |].
  cbn [take_le]. destruct (a <=? m) eqn:E.
  - destruct I as [<- | I]; [left; auto | right].
    apply IH; auto. apply StronglySorted_inv in S; tauto.
  - destruct I as [<- | I]; [lia |]. pose proof (SS_lt_head _ _ _ S I). lia.
Qed.

Lemma primes_upto_unique l1 l2 m : primes_upto l1 m -> primes_upto l2 m -> l1 = l2.
Proof.
  intros [S1 H1] [S2 H2]. apply sorted_ext_eq; auto.
  intros x. rewrite H1, H2. tauto.
Qed.

Lemma primes_upto_take l m m' : primes_upto l m' -> m <= m' -> primes_upto (take_le m l) m.
Proof.
  intros [S H] Hm. split; [apply take_le_sorted; auto |].
  intros p; split.
  - intros I. apply take_le_incl in I. destruct I as [I L]. apply H in I. tauto.
  - intros [P L]. apply take_le_complete; auto. apply H. split; auto. lia.
Qed.

Lemma primes_upto_last l m : primes_upto l m -> l <> [] -> primes_upto l (last l 0).
Proof.
  intros [S H] Hl. split; auto. intros p; split.
  - intros I. split; [apply H; auto | apply sorted_last_max; auto].
  - intros [P L]. apply H. split; auto.
    assert (In (last l 0) l) by (apply last_in; auto).
    apply H in H0. lia.
Qed.

Lemma primes_upto_weaken l a b :
  primes_upto l a -> a <= b -> (forall x, a < x -> x <= b -> ~ Nprime x) -> primes_upto l b.
Proof.
  intros [S H] Hab No. split; auto. intros p; split.
  - intros I. apply H in I. split; [tauto | lia].
  - intros [P L]. apply H. split; auto.
    destruct (N.le_gt_cases p a); auto. exfalso. apply (No p); auto.
Qed.

Lemma primes_upto_extend l a b news :
  primes_upto l a -> StronglySorted N.lt news ->
  (forall x, In x news <-> (a < x /\ x <= b /\ Nprime x)) -> a <= b ->
  primes_upto (l ++ news) b.
Proof.
  intros [S H] Sn Hn Hab. split.
  - apply SS_app; auto. intros x y Ix Iy. apply H in Ix. apply Hn in Iy. lia.
  - intros p. rewrite in_app_iff, H, Hn. split.
    + intros [[P L] | (L1 & L2 & P)]; split; auto; lia.
    + intros [P L]. destruct (N.le_gt_cases p a); [left | right]; auto.
Qed.

Lemma first10_sorted : StronglySorted N.lt first10.
Proof. unfold first10. repeat constructor. Qed.

Lemma primes_upto_first10 : primes_upto first10 29.
Proof.
  split; [apply first10_sorted |]. intros p; split.
  - intros I. unfold first10 in I. cbn [In] in I.
    repeat (destruct I as [<- | I];
            [split; [apply is_prime_sound; vm_compute; reflexivity | lia] |]).
    destruct I.
  - intros [[H1 H] L].
    pose proof (H 2). pose proof (H 3). pose proof (H 5).
    unfold first10. cbn [In]. lia.
Qed.

Lemma take_le_prefix m l : exists c, l = take_le m l ++ c.
Proof.
  induction l as [| a l [c IH]]; cbn [take_le]; [exists []; reflexivity |].
  destruct (a <=? m); [| exists (a :: l); reflexivity].
  exists c. cbn [app]. f_equal. exact IH.
Qed.

Lemma SS_app_lt l1 l2 x y :
  StronglySorted N.lt (l1 ++ l2) -> In x l1 -> In y l2 -> x < y.
Proof.
  induction l1 as [| a l1 IH]; intros S Ix Iy; [destruct Ix |].
  cbn [app] in S. destruct Ix as [<- | Ix].
  - apply (SS_lt_head _ _ _ S). apply in_or_app. right; auto.
  - apply IH; auto. apply StronglySorted_inv in S; tauto.
Qed.

(* of two lists of primes, the one with the smaller bound is a prefix of the other *)
Lemma primes_upto_prefix l1 l2 m1 m2 :
  primes_upto l1 m1 -> primes_upto l2 m2 -> m1 <= m2 ->
  exists c, l2 = l1 ++ c /\ forall y, In y c -> m1 < y.
Proof.
  intros P1 P2 L.
  pose proof (primes_upto_take l2 m1 m2 P2 L) as P1'.
  destruct (take_le_prefix m1 l2) as [c Hc].
  rewrite <- (primes_upto_unique _ _ _ P1 P1') in Hc.
  exists c. split; auto. intros y Iy.
  destruct (N.lt_ge_cases m1 y) as [| G]; auto. exfalso.
  destruct P2 as [S2 H2]. destruct P1 as [S1 H1].
  assert (I1 : In y l1).
  { apply H1. split; auto. apply H2. rewrite Hc. apply in_or_app. right; auto. }
  rewrite Hc in S2. pose proof (SS_app_lt _ _ _ _ S2 I1 Iy). lia.
Qed.

Lemma primes_upto_exists m : exists l, primes_upto l m.
Proof.
  induction m as [| m [l IH]] using N.peano_ind.
  - exists []. split; [constructor |]. intros p; split; [intros [] |].
    intros [[H _] L]. lia.
  - assert (D : Nprime (N.succ m) \/ ~ Nprime (N.succ m)).
    { destruct (N.le_gt_cases (N.succ m) 1) as [L | L].
      - right. intros [H _]. lia.
      - destruct (prime_or_factor _ L) as [P | (p & Pp & D & Q)]; [left; auto | right].
        intros P. destruct Pp as [Hp1 Hp2].
        assert (2 * p <= p * p) by (apply N.mul_le_mono_r; lia).
        apply (Nprime_no_divisor _ p P D); lia. }
    destruct D as [P | NP].
    + exists (l ++ [N.succ m]). apply primes_upto_extend with (a := m); auto; [| | lia].
      * repeat constructor.
      * intros x; split.
        -- intros [<- | []]. split; [lia | split; [lia | auto]].
        -- intros (L1 & L2 & _). left. lia.
    + exists l. apply primes_upto_weaken with (a := m); auto; [lia |].
      intros x L1 L2. assert (x = N.succ m) by lia. subst x. auto.
Qed.
