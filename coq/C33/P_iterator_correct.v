(* C33 obligation: histories that also create, advance and destroy bounded iterators
   (interleaved with everything else): every next_prime returns the prime that stands at the
   iterator's current index in the increasing list of the primes up to its limit, or a value
   above the limit once that list is exhausted. *)
From SE Require Import C33.SieveSpec C33.SieveProofs.
Theorem C33_iterator_correct :
  forall ops : list op, Forall op_ok ops -> run_ok init ops.
Proof. exact iterator_correct. Qed.
Print Assumptions C33_iterator_correct.
