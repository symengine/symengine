(* C33 -- proofs about the segmented sieve model (SieveModel.v) against SieveSpec.v:
   Sieve::_extend, and histories of calls. *)
From SE Require Import C33.SieveSpec C33.SieveArith C33.SieveSegment C33.Bertrand.
From Coq Require Import ZifyN ZifyBool Lia Sorted.
Local Open Scope N_scope.
Local Open Scope res_scope.

Lemma vec_inv_live v : vec_inv v -> exists r, live v = first10 ++ r.
Proof.
  intros (A & _ & _). exists (skipn 10 (live v)). rewrite <- A. symmetry. apply firstn_skipn.
Qed.

Lemma vec_inv_facts v : vec_inv v ->
  In (vec_back v) (live v) /\ Nprime (vec_back v) /\ 29 <= vec_back v /\
  vec_back v mod 2 = 1 /\ vec_back v + 1 < W32 /\ exists ps, live v = 2 :: ps.
Proof.
  intros V. destruct (vec_inv_live v V) as [r Hr]. destruct V as (_ & [S H] & W).
  assert (I : In (vec_back v) (live v)).
  { unfold vec_back. apply last_in. rewrite Hr. discriminate. }
  assert (P : Nprime (vec_back v)) by (apply H in I; tauto).
  assert (L : 29 <= vec_back v).
  { unfold vec_back. apply sorted_last_max; auto. rewrite Hr. apply in_or_app. left.
    unfold first10. cbn. tauto. }
  split; auto. split; auto. split; auto.
  split; [apply prime_odd; auto; lia |]. split.
  - (* the last prime is below 2^32 and is not 2^32 - 1 = 3 * 1431655765 *)
    destruct (N.eq_dec (vec_back v) 4294967295) as [E | Ne]; [| unfold W32 in *; lia].
    exfalso. rewrite E in P. apply (Nprime_no_divisor _ 3 P); [| lia | lia].
    exists 1431655765. reflexivity.
  - exists (tl first10 ++ r). rewrite Hr. reflexivity.
Qed.

(* what one call of _extend achieves *)
Definition post (v : vec) (limit : N) (v' : vec) : Prop :=
  (exists news, v' = vec_push_list v news) /\
  primes_upto (live v') (N.max limit (vec_back v)).

Lemma post_inv v limit v' : vec_inv v -> limit < W32 -> post v limit v' -> vec_inv v'.
Proof.
  intros V L [[news ->] P].
  destruct (vec_inv_live v V) as [r Hr]. destruct V as (_ & _ & W).
  assert (Ne : live (vec_push_list v news) <> []).
  { rewrite live_push, Hr. discriminate. }
  split; [| split].
  - rewrite live_push, Hr, <- app_assoc. reflexivity.
  - unfold vec_back. eapply primes_upto_last; eauto.
  - assert (I : In (vec_back (vec_push_list v news)) (live (vec_push_list v news)))
      by (unfold vec_back; apply last_in; auto).
    apply P in I. lia.
Qed.

(* this much fuel serves [extend] for every limit below B *)
Definition ext_upto (fuel : nat) (B : N) : Prop :=
  forall seg v limit, seg_ok seg -> vec_inv v -> limit < B -> limit < LIMIT_MAX ->
    exists v', extend fuel seg v limit = Ok v' /\ post v limit v'.

(* One more unit of fuel takes the bound from B' to B if limits below B have roots below B'.
   The 30: [extend] calls itself only when the root exceeds the last prime, which is at least
   29; for roots below 30 nothing is asked of the inner fuel. *)
Lemma ext_upto_step f B' B :
  ext_upto f B' ->
  (forall limit, limit < B -> N.sqrt limit < N.max B' 30) ->
  ext_upto (S f) B.
Proof.
  intros IH HB seg v limit Sg V LB L31. pose proof Sg as [Sg1 Sg2]. unfold LIMIT_MAX in L31.
  destruct (vec_inv_facts v V) as (Ib & Pb & B29 & Bodd & Bw & [ps Hps]).
  cbn [extend]. rewrite (uadd_small (vec_back v) 1) by auto.
  set (back := vec_back v) in *.
  destruct (limit <=? back + 1) eqn:E0.
  - exists v. split; auto. split; [exists []; symmetry; apply vec_push_nil |].
    destruct V as (_ & P & _). fold back in P.
    apply primes_upto_weaken with (a := back); auto; [lia |]. intros x X1 X2 Px.
    assert (x = back + 1) by lia. subst x.
    apply (Nprime_no_divisor _ 2 Px); [apply mod0_divide; lia | lia | lia].
  - set (sq := N.sqrt limit).
    pose proof (N.sqrt_spec limit ltac:(lia)) as Sq. cbv zeta in Sq. fold sq in Sq.
    pose proof (N.sqrt_le_lin limit) as Sq2. fold sq in Sq2.
    assert (M : exists v1,
               (if back + 1 <=? sq then extend f seg v sq else Ok v) = Ok v1 /\
               (exists news, v1 = vec_push_list v news) /\ vec_inv v1 /\
               (forall p, Nprime p -> p <= sq -> In p (live v1)) /\
               vec_back v1 < limit).
    { destruct (back + 1 <=? sq) eqn:E1.
      - destruct (IH seg v sq Sg V) as (v1 & Ev & Post).
        { specialize (HB limit LB). fold sq in HB. lia. }
        { unfold LIMIT_MAX. lia. }
        exists v1. split; auto. pose proof Post as [Pn Pp]. split; auto.
        assert (V1 : vec_inv v1) by (apply (post_inv v sq); auto; unfold W32; lia).
        split; auto. split.
        + intros p Pp' Lp. apply Pp. split; auto. lia.
        + destruct (vec_inv_facts v1 V1) as (I1 & _).
          apply Pp in I1. fold back in I1.
          assert (2 * sq <= sq * sq) by (apply N.mul_le_mono_r; lia). lia.
      - exists v. split; auto. split; [exists []; symmetry; apply vec_push_nil |].
        split; auto. split.
        + intros p Pp' Lp. destruct V as (_ & P & _). apply P. split; auto. fold back. lia.
        + fold back. lia. }
    destruct M as (v1 & Ev & [news1 Hn1] & V1 & Hall & Hb1). clear Sq Sq2.
    rewrite Ev. cbn [bind].
    destruct (vec_inv_facts v1 V1) as (I1 & P1 & B1 & O1 & W1 & Hps1).
    rewrite (uadd_small (vec_back v1) 1) by auto.
    replace (seg =? 0) with false by lia.
    assert (A1 : primes_upto (live v1) (vec_back v1 + 1 - 1)).
    { replace (vec_back v1 + 1 - 1) with (vec_back v1) by lia. apply V1. }
    assert (A2 : (vec_back v1 + 1) mod 2 = 0) by lia.
    assert (A3 : forall p, Nprime p -> p * p <= limit -> p < vec_back v1 + 1).
    { intros p Pp Q.
      apply N.sqrt_le_square in Q. rewrite N.add_1_r. apply N.lt_succ_r.
      unfold vec_back. apply sorted_last_max; [apply V1 | auto]. }
    destruct (seg_loop_spec v1 (vec_back v1 + 1) limit seg Hps1 A1 A2
                ltac:(lia) ltac:(lia) L31 Sg A3) as (news2 & E2 & P2).
    exists (vec_push_list v1 news2). split; auto. split.
    + exists (news1 ++ news2). rewrite Hn1, vec_push_push. reflexivity.
    + rewrite live_push. fold back. replace (N.max limit back) with limit by lia. auto.
Qed.

(* The ladder: no recursive call is made for roots below 30, so fuel 1 serves limits below
   30^2 = 900, fuel 2 limits below 900^2 = 810000, and fuel 3 limits below 810000^2, which is
   above 2^31. *)
Lemma ext_upto_0 : ext_upto 0 0.
Proof. intros seg v limit _ _ L. lia. Qed.

Lemma ext_upto_1 : ext_upto 1 900.
Proof.
  apply (ext_upto_step _ _ _ ext_upto_0). intros limit L.
  apply N.sqrt_lt_square. change (N.max 0 30) with 30. lia.
Qed.

Lemma ext_upto_2 : ext_upto 2 810000.
Proof.
  apply (ext_upto_step _ _ _ ext_upto_1). intros limit L.
  apply N.sqrt_lt_square. change (N.max 900 30) with 900. lia.
Qed.

Lemma ext_upto_3 : ext_upto 3 LIMIT_MAX.
Proof.
  apply (ext_upto_step _ _ _ ext_upto_2). intros limit L. unfold LIMIT_MAX in L.
  apply N.sqrt_lt_square. change (N.max 810000 30) with 810000. lia.
Qed.

Lemma ext_upto_more f B : ext_upto f B -> ext_upto (S f) B.
Proof.
  intros H. apply (ext_upto_step _ _ _ H). intros limit L.
  pose proof (N.sqrt_le_lin limit). lia.
Qed.

Lemma ext_upto_ge3 f : (3 <= f)%nat -> ext_upto f LIMIT_MAX.
Proof.
  induction 1 as [| f _ IH]; [exact ext_upto_3 | exact (ext_upto_more f _ IH)].
Qed.

Lemma ext_upto_fuel : ext_upto extend_fuel LIMIT_MAX.
Proof. apply ext_upto_ge3. unfold extend_fuel. lia. Qed.

Theorem extend_correct :
  forall (v : vec) (segment limit : N),
    vec_inv v -> seg_ok segment -> limit < LIMIT_MAX ->
    exists v', extend extend_fuel segment v limit = Ok v' /\
               vec_inv v' /\
               primes_upto (live v') (N.max limit (vec_back v)).
Proof.
  intros v seg limit V Sg L.
  destruct (ext_upto_fuel seg v limit Sg V L L) as (v' & E & Post).
  exists v'. split; auto. split; [| apply Post].
  apply (post_inv v limit); auto. unfold W32, LIMIT_MAX in *. lia.
Qed.

(* the invariant of histories: the specification's [state_inv] plus the fact that the
   vector never grows beyond 2^31 (all limits are below 2^31) *)
Definition hinv (s : state) : Prop := state_inv s /\ vec_back (primes s) < LIMIT_MAX.

Lemma vec_inv_first10 : vec_inv {| live := first10 |}.
Proof.
  split; [reflexivity |]. split; [exact primes_upto_first10 | reflexivity].
Qed.

Theorem init_inv : state_inv init.
Proof.
  split; [exact vec_inv_first10 |]. split; [unfold seg_ok; cbn; lia | constructor].
Qed.

Lemma hinv_init : hinv init.
Proof. split; [exact init_inv | reflexivity]. Qed.

Lemma vec_clear_inv v : vec_inv v -> vec_clear v = {| live := first10 |}.
Proof. intros (A & _ & _). unfold vec_clear. rewrite A. reflexivity. Qed.

Lemma hinv_do_clear s : hinv s -> hinv (do_clear s).
Proof.
  intros [(V & Sg & It) Bk]. unfold do_clear, set_primes, hinv, state_inv.
  cbn [primes sieve_size iters clear_flag].
  rewrite (vec_clear_inv _ V).
  split; [split; [exact vec_inv_first10 | split; auto] | reflexivity].
Qed.

Lemma step_gen_ok s limit : hinv s -> limit < LIMIT_MAX ->
  exists s' l, step s (OGen limit) = Ok (s', OutPrimes l) /\ primes_upto l limit /\ hinv s'.
Proof.
  intros [(V & Sg & It) Bk] L. cbn [step].
  destruct (extend_correct (primes s) (sieve_size s) limit V Sg L) as (v' & E & V' & P).
  rewrite E. cbn [bind]. eexists; eexists. split; [reflexivity |]. split.
  - apply (primes_upto_take _ _ _ P). lia.
  - assert (H1 : hinv (set_primes s v')).
    { split; [split; [exact V' | split; [exact Sg | exact It]] |]. cbn.
      destruct (vec_inv_facts v' V') as (I & _).
      apply P in I. lia. }
    destruct (clear_flag s); [apply hinv_do_clear |]; auto.
Qed.

Lemma step_setsize_ok s k : hinv s -> 1 <= k /\ k <= SIZE_MAX ->
  exists s', step s (OSetSize k) = Ok (s', OutUnit) /\ hinv s'.
Proof.
  intros [(V & Sg & It) Bk] [K1 K2]. unfold SIZE_MAX in K2. cbn [step].
  eexists. split; [reflexivity |].
  split; [split; [exact V | split; [| exact It]] | exact Bk]. cbn.
  rewrite (umul_small k 1024) by (unfold W32; lia).
  rewrite (umul_small (k * 1024) 8) by (unfold W32; lia).
  unfold seg_ok. lia.
Qed.

Lemma find_iter_in id l it : find_iter id l = Some it -> exists k, In (k, it) l.
Proof.
  induction l as [| [k i] l IH]; cbn [find_iter]; [discriminate |].
  destruct (k =? id).
  - intros [= ->]. exists k. left; auto.
  - intros H. destruct (IH H) as [k' I]. exists k'. right; auto.
Qed.

Lemma remove_iter_forall (P : N * iter -> Prop) id l :
  Forall P l -> Forall P (remove_iter id l).
Proof.
  induction l as [| [k i] l IH]; intros F; cbn [remove_iter]; [constructor |].
  inversion F; subst. destruct (k =? id); auto.
Qed.

(* the extension loop of next_prime: it ends within its fuel because each round that does
   not reach the iterator's limit moves the last prime past one more element of [chain].
   The + 2: one unit for the call that finds the index inside the vector and returns, and one
   so that 1 <= fuel for the recursive call follows from this hypothesis alone. *)
Lemma next_loop_ok seg it : seg_ok seg -> 0 < it_limit it -> it_limit it < LIMIT_MAX ->
  forall fuel v, vec_inv v -> vec_back v < LIMIT_MAX ->
  (1 <= fuel)%nat ->
  ((vec_size v <=? it_index it) = true -> (mu (vec_back v) + 2 <= fuel)%nat) ->
  exists v' r, next_loop fuel seg v it = Ok (v', r) /\ vec_inv v' /\ vec_back v' < LIMIT_MAX /\
    match r with
    | Some p => p = it_limit it + 1 /\
                forall l, primes_upto l (it_limit it) ->
                          (length l <= N.to_nat (it_index it))%nat
    | None => (N.to_nat (it_index it) < length (live v'))%nat
    end.
Proof.
  intros Sg Lim1 Lim2. unfold LIMIT_MAX in *.
  induction fuel as [| fuel IH]; intros v V Bk F1 F2; [lia |].
  cbn [next_loop]. destruct (vec_size v <=? it_index it) eqn:E.
  2: { exists v, None. split; auto. split; auto. split; auto. unfold vec_size in E. lia. }
  specialize (F2 eq_refl).
  destruct (vec_inv_facts v V) as (Ib & Pb & B29 & _).
  set (back := vec_back v) in *. set (limit := it_limit it) in *. set (idx := it_index it) in *.
  rewrite (umul_small back 2) by (unfold W32; lia).
  replace (0 <? limit) with true by lia. cbn [andb].
  set (E' := if limit <? back * 2 then limit else back * 2).
  assert (HE : E' <= limit /\ (E' = limit \/ E' = back * 2)).
  { unfold E'. destruct (limit <? back * 2) eqn:?; lia. }
  destruct HE as [HE1 HE2]. clearbody E'.
  assert (HE3 : E' < LIMIT_MAX) by (unfold LIMIT_MAX; lia).
  destruct (ext_upto_fuel seg v E' Sg V HE3 HE3) as (v1 & Ev & Post).
  rewrite Ev. cbn [bind].
  assert (V1 : vec_inv v1) by (apply (post_inv v E'); auto; unfold W32; lia).
  destruct Post as [_ P1]. fold back in P1.
  destruct (vec_inv_facts v1 V1) as (I1 & _).
  assert (Bk1 : vec_back v1 < 2147483648) by (apply P1 in I1; lia).
  destruct ((E' =? limit) && (vec_size v1 <=? idx)) eqn:T.
  - apply andb_true_iff in T. destruct T as [T1 T2]. assert (E' = limit) by lia. subst E'.
    exists v1, (Some (uadd limit 1)). split; auto. split; auto. split; auto.
    rewrite uadd_small by (unfold W32; lia). split; auto.
    intros l Pl.
    destruct (primes_upto_prefix l (live v1) limit _ Pl P1 ltac:(lia)) as (c & Hc & _).
    unfold vec_size in T2. rewrite Hc, app_length in T2. lia.
  - apply IH; auto; [lia |].
    intros T2. fold idx in T2. rewrite T2, andb_true_r in T.
    assert (E' = back * 2) by lia.
    destruct (chain_next back ltac:(lia) Bk) as (c & Ic & C1 & C2).
    assert (I2 : In c (live v1)) by (apply P1; split; [apply chain_prime; auto | lia]).
    assert (c <= vec_back v1) by (apply sorted_last_max; [apply V1 | auto]).
    assert (back <= vec_back v1) by lia.
    pose proof (mu_decr back (vec_back v1) c H1 Ic C1 H0). lia.
Qed.

Lemma next_prime_ok s id it : hinv s -> find_iter id (iters s) = Some it ->
  exists s' p, next_prime s id it = Ok (s', OutPrime p) /\ hinv s' /\
    exists l, primes_upto l (it_limit it) /\
      ((N.to_nat (it_index it) < length l)%nat -> p = nth (N.to_nat (it_index it)) l 0) /\
      ((length l <= N.to_nat (it_index it))%nat -> it_limit it < p).
Proof.
  intros [(V & Sg & It) Bk] F.
  destruct (find_iter_in _ _ _ F) as [k Ik].
  assert (Hit : 0 < it_limit it /\ it_limit it < LIMIT_MAX)
    by (rewrite Forall_forall in It; apply (It _ Ik)).
  destruct (next_loop_ok (sieve_size s) it Sg (proj1 Hit) (proj2 Hit) next_fuel (primes s) V Bk)
    as (v' & r & E & V' & Bk' & R).
  - unfold next_fuel; lia.
  - (* mu is at most 33, the length of [chain]: 35 units are needed, next_fuel is 40 *)
    intros _. pose proof (mu_bound (vec_back (primes s))). unfold next_fuel. lia.
  - unfold next_prime. rewrite E. cbn [bind].
    destruct (primes_upto_exists (it_limit it)) as [l Pl].
    assert (H1 : hinv (set_primes s v')).
    { split; [split; [exact V' | split; [exact Sg | exact It]] | exact Bk']. }
    destruct r as [p |].
    + destruct R as [-> R]. exists (set_primes s v'), (it_limit it + 1).
      split; auto. split; auto.
      exists l. split; auto. specialize (R l Pl). split; intros; lia.
    + assert (G : vec_get v' (it_index it) = Ok (nth (N.to_nat (it_index it)) (live v') 0)).
      { unfold vec_get. rewrite (nth_error_nth' _ 0 R). reflexivity. }
      rewrite G. cbn [bind]. eexists; eexists. split; [reflexivity |]. split.
      * destruct H1 as [(A & B & C) D].
        split; [split; [exact A | split; [exact B |]] | exact D].
        cbn [iters set_iter set_primes]. constructor; [exact Hit |].
        apply remove_iter_forall; exact It.
      * exists l. split; auto.
        pose proof (proj1 (proj2 V')) as Pv.
        destruct (N.le_ge_cases (it_limit it) (vec_back v')) as [L | L].
        -- destruct (primes_upto_prefix l (live v') _ _ Pl Pv L) as (c & Hc & Hy).
           rewrite Hc. rewrite Hc, app_length in R. split; intros Hl.
           ++ apply app_nth1; auto.
           ++ rewrite app_nth2 by lia. apply Hy. apply nth_In. lia.
        -- destruct (primes_upto_prefix (live v') l _ _ Pv Pl L) as (c & Hc & Hy).
           split; intros Hl.
           ++ rewrite Hc. symmetry. apply app_nth1. auto.
           ++ rewrite Hc, app_length in Hl. lia.
Qed.

Lemma step_ok s o : hinv s -> op_ok o ->
  exists s' x, step s o = Ok (s', x) /\ out_ok s o x /\ hinv s'.
Proof.
  intros H O. destruct o; cbn [op_ok] in O.
  - destruct (step_gen_ok s limit H O) as (s' & l & E & P & H').
    exists s', (OutPrimes l). auto.
  - exists (do_clear s), OutUnit. split; [reflexivity |]. split; [exact I |].
    apply hinv_do_clear; auto.
  - destruct (step_setsize_ok s k H O) as (s' & E & H').
    exists s', OutUnit. split; auto. split; [exact I | auto].
  - eexists; eexists. split; [reflexivity |]. split; [exact I |].
    destruct H as [(V & Sg & It) Bk]. split; [split; [exact V | split; [exact Sg | exact It]] | exact Bk].
  - eexists; eexists. split; [reflexivity |]. split; [exact I |].
    destruct H as [(A & B & C) D].
    split; [split; [exact A | split; [exact B |]] | exact D].
    cbn [iters set_iter]. constructor; [exact O | apply remove_iter_forall; exact C].
  - cbn [step]. destruct (find_iter id (iters s)) as [it |] eqn:F.
    + destruct (next_prime_ok s id it H F) as (s' & p & E & H' & Out).
      exists s', (OutPrime p). split; auto. split; auto.
      cbn [out_ok]. rewrite F. exact Out.
    + exists s, OutUnit. split; [reflexivity |]. split; [| exact H]. cbn [out_ok]. exact F.
  - cbn [step]. eexists; eexists. split; [reflexivity |]. split; [exact I |].
    destruct H as [(A & B & C) D].
    assert (H1 : hinv {| primes := primes s; sieve_size := sieve_size s;
                         clear_flag := clear_flag s; iters := remove_iter id (iters s) |}).
    { split; [split; [exact A | split; [exact B |]] | exact D].
      cbn [iters]. apply remove_iter_forall; exact C. }
    destruct (clear_flag s); [apply hinv_do_clear |]; exact H1.
Qed.

Lemma run_ok_all : forall ops s, hinv s -> Forall op_ok ops -> run_ok s ops.
Proof.
  induction ops as [| o ops IH]; intros s H F; cbn [run_ok]; auto.
  inversion F as [| ? ? O F']; subst.
  destruct (step_ok s o H O) as (s' & x & E & Ok' & H'). rewrite E. split; auto.
Qed.

Theorem iterator_correct :
  forall ops : list op, Forall op_ok ops -> run_ok init ops.
Proof. intros ops F. apply run_ok_all; auto. exact hinv_init. Qed.

(* histories without iterator operations are a special case *)
Theorem history_correct :
  forall ops : list op, Forall op_ok_gen ops -> run_ok init ops.
Proof.
  intros ops F. apply iterator_correct. eapply Forall_impl; [| exact F].
  intros []; cbn; tauto.
Qed.
