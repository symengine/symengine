(* C33 -- Bertrand's postulate below 2^31, by an explicit chain of primes each at most
   twice its predecessor, checked by trial division inside the kernel (vm_compute);
   and the counting measure on that chain that bounds the iterator's extension loop. *)
From SE Require Import C33.SieveSpec C33.SieveArith.
From Coq Require Import ZifyN ZifyBool Lia.
Local Open Scope N_scope.

Definition chain : list N :=
  [2; 3; 5; 7; 13; 23; 43; 83; 163; 317; 631; 1259; 2503; 5003; 9973; 19937; 39869;
   79699; 159389; 318751; 637499; 1274989; 2549951; 5099893; 10199767; 20399531;
   40799041; 81598067; 163196129; 326392249; 652784471; 1305568919; 2611137817].

(* Divisibility by an odd d without division: n |-> n/2 or (n+d)/2 keeps d | n and
   brings n below 2d in about size n - size d steps; then d | n only if n = d. *)
Fixpoint halve (k : nat) (d n : N) : N :=
  match k with
  | O => n
  | S k' => halve k' d (N.div2 (if N.even n then n else n + d))
  end.

Lemma halve_divide d : d mod 2 = 1 -> forall k n, 0 < n -> (d | n) ->
  0 < halve k d n /\ (d | halve k d n).
Proof.
  intros Hd. induction k as [|k IH]; intros n Hn D; [auto|]. cbn [halve].
  set (x := if N.even n then n else n + d).
  assert (Hx : x mod 2 = 0 /\ 0 < x /\ (d | x)).
  { unfold x. destruct (N.even n) eqn:E.
    - apply even_true_mod in E. auto.
    - apply even_false_mod in E. split; [lia|]. split; [lia|].
      apply N.divide_add_r; [exact D|apply N.divide_refl]. }
  destruct Hx as (X2 & X0 & XD). rewrite N.div2_div. apply IH; [lia|].
  apply odd_coprime_half; [exact Hd|]. replace (2 * (x / 2)) with x by lia. exact XD.
Qed.

(* s is meant to be the size of n: with fewer steps the test only fails more often *)
Definition ndiv (s : nat) (d n : N) : bool :=
  let r := halve (S s - N.size_nat d) d n in (r <? 2 * d) && negb (r =? d).

Lemma ndiv_sound s d n : d mod 2 = 1 -> 0 < n -> ndiv s d n = true -> n mod d <> 0.
Proof.
  intros Hd Hn H M. apply mod0_divide in M; [|lia].
  destruct (halve_divide d Hd (S s - N.size_nat d) n Hn M) as [Hr [q Hq]].
  unfold ndiv in H. cbv zeta in H.
  assert (q = 0 \/ q = 1 \/ 2 * d <= q * d) as [->|[->|Hq2]]; [|lia..].
  destruct (N.le_gt_cases 2 q); [right; right; apply N.mul_le_mono_r; assumption|lia].
Qed.

(* trial division by the numbers prime to 30 only, ending beyond the square root *)
Definition spokes : list N := [0; 4; 6; 10; 12; 16; 22; 24].

Fixpoint wheel (k s : nat) (d n : N) : bool :=
  match k with
  | O => n <? d * d
  | S k' => forallb (fun o => ndiv s (d + o) n) spokes && wheel k' s (d + 30) n
  end.

Lemma wheel_next d e : d mod 30 = 7 -> d <= e -> e mod 2 <> 0 -> e mod 3 <> 0 -> e mod 5 <> 0 ->
  In (e - d) spokes \/ d + 30 <= e.
Proof. cbn [In spokes]. lia. Qed.

Lemma wheel_sound s n : 0 < n -> forall k d, d mod 30 = 7 -> wheel k s d n = true ->
  forall e, d <= e -> e * e <= n -> e mod 2 <> 0 -> e mod 3 <> 0 -> e mod 5 <> 0 -> n mod e <> 0.
Proof.
  intros Hn. induction k as [|k IH]; intros d Hd W e He Hee E2 E3 E5; cbn [wheel] in W.
  - assert (d * d <= e * e) by (apply N.mul_le_mono; exact He). clear - W Hee H. lia.
  - apply andb_true_iff in W. destruct W as [W1 W2].
    destruct (wheel_next d e Hd He E2 E3 E5) as [I | L].
    + rewrite forallb_forall in W1. specialize (W1 _ I).
      replace (d + (e - d)) with e in W1 by (clear - He; lia).
      apply (ndiv_sound s); [clear - E2; lia | assumption..].
    + apply (IH (d + 30)); try assumption. clear - Hd; lia.
Qed.

(* (N.sqrt n + 23) / 30 is the least k with N.sqrt n < 7 + 30 * k: after that many rounds
   the closing test n <? d * d of [wheel] can succeed.  Soundness does not depend on the
   count: the closing test is part of the evaluated boolean. *)
Definition wheel_prime (n : N) : bool :=
  if n <? 49 then is_prime n
  else negb (n mod 2 =? 0) && negb (n mod 3 =? 0) && negb (n mod 5 =? 0) &&
       wheel (N.to_nat ((N.sqrt n + 23) / 30)) (N.size_nat n) 7 n.

Lemma prime_to_30 p : Nprime p -> p <> 2 -> p <> 3 -> p <> 5 ->
  7 <= p /\ p mod 2 <> 0 /\ p mod 3 <> 0 /\ p mod 5 <> 0.
Proof. intros [H1 H] P2 P3 P5. pose proof (H 2). pose proof (H 3). pose proof (H 5). lia. Qed.

Lemma wheel_prime_sound n : wheel_prime n = true -> Nprime n.
Proof.
  unfold wheel_prime. destruct (N.ltb_spec n 49) as [_ | L]; [apply is_prime_sound |]. intros H.
  destruct (prime_or_factor n ltac:(lia)) as [P|(p & Pp & D & Q)]; [exact P|exfalso].
  assert (p <> 0) by (intros ->; destruct Pp; lia). apply divide_mod0 in D; [|assumption].
  assert (n mod 2 <> 0 /\ n mod 3 <> 0 /\ n mod 5 <> 0 /\
          wheel (N.to_nat ((N.sqrt n + 23) / 30)) (N.size_nat n) 7 n = true)
    as (N2 & N3 & N5 & W) by lia.
  destruct (N.eq_dec p 2) as [->|P2]; [contradiction|].
  destruct (N.eq_dec p 3) as [->|P3]; [contradiction|].
  destruct (N.eq_dec p 5) as [->|P5]; [contradiction|].
  destruct (prime_to_30 p Pp P2 P3 P5) as (P7 & Q2 & Q3 & Q5).
  exact (wheel_sound _ n ltac:(clear - L; lia) _ 7 eq_refl W p P7 Q Q2 Q3 Q5 D).
Qed.

Lemma chain_prime c : In c chain -> Nprime c.
Proof.
  assert (H : forallb wheel_prime chain = true) by (vm_compute; reflexivity).
  rewrite forallb_forall in H. intros I. apply wheel_prime_sound. auto.
Qed.

Fixpoint chain_ok (l : list N) : bool :=
  match l with
  | a :: ((b :: _) as r) => (a <? b) && (b <=? 2 * a) && chain_ok r
  | _ => true
  end.

Lemma chain_next_gen : forall l a, chain_ok (a :: l) = true ->
  forall n, a <= n -> n < last (a :: l) 0 ->
  exists c, In c (a :: l) /\ n < c /\ c <= 2 * n.
Proof.
  induction l as [| b l IH]; intros a H n L1 L2.
  - cbn in L2. lia.
  - cbn [chain_ok] in H. apply andb_true_iff in H. destruct H as [H H3].
    apply andb_true_iff in H. destruct H as [H1 H2].
    destruct (N.lt_ge_cases n b) as [L | L].
    + exists b. split; [right; left; auto | lia].
    + change (last (a :: b :: l) 0) with (last (b :: l) 0) in L2.
      destruct (IH b H3 n L L2) as (c & I & C). exists c. split; [right; auto | auto].
Qed.

Lemma chain_next n : 2 <= n -> n < LIMIT_MAX ->
  exists c, In c chain /\ n < c /\ c <= 2 * n.
Proof.
  intros L1 L2. apply (chain_next_gen (tl chain) 2); auto.
  unfold LIMIT_MAX in L2. change (last (2 :: tl chain) 0) with 2611137817. lia.
Qed.

Theorem bertrand_31_holds : bertrand_31.
Proof.
  intros n L1 L2. destruct (N.eq_dec n 1) as [-> | Ne].
  - exists 2. split; [apply chain_prime; left; reflexivity | lia].
  - destruct (chain_next n ltac:(lia) L2) as (c & I & C).
    exists c. split; [apply chain_prime; auto | auto].
Qed.

(* the number of chain elements above b: what the iterator's extension loop decreases *)
Definition mu (b : N) : nat := length (filter (fun c => b <? c) chain).

Lemma filter_len_le {A} (f g : A -> bool) l :
  (forall x, In x l -> f x = true -> g x = true) ->
  (length (filter f l) <= length (filter g l))%nat.
Proof.
  induction l as [| a l IH]; intros H; cbn [filter]; auto.
  assert (IH' : (length (filter f l) <= length (filter g l))%nat).
  { apply IH. intros x I. apply H. right; auto. }
  destruct (f a) eqn:Fa.
  - rewrite (H a (or_introl eq_refl) Fa). cbn [length]. lia.
  - destruct (g a); cbn [length]; lia.
Qed.

Lemma filter_len_lt {A} (f g : A -> bool) l :
  (forall x, In x l -> f x = true -> g x = true) ->
  (exists x, In x l /\ g x = true /\ f x = false) ->
  (length (filter f l) < length (filter g l))%nat.
Proof.
  intros H (x & I & Gx & Fx). apply in_split in I. destruct I as (l1 & l2 & ->).
  assert (L1 : (length (filter f l1) <= length (filter g l1))%nat).
  { apply filter_len_le. intros y Iy. apply H. apply in_or_app. left; exact Iy. }
  assert (L2 : (length (filter f l2) <= length (filter g l2))%nat).
  { apply filter_len_le. intros y Iy. apply H. apply in_or_app. right; right; exact Iy. }
  rewrite !filter_app, !app_length. cbn [filter]. rewrite Gx, Fx. cbn [length]. lia.
Qed.

Lemma mu_decr b b' c : b <= b' -> In c chain -> b < c -> c <= b' -> (mu b' < mu b)%nat.
Proof.
  intros L I L1 L2. unfold mu. apply filter_len_lt.
  - intros x _ Hx. lia.
  - exists c. split; auto. lia.
Qed.

Lemma mu_bound b : (mu b <= 33)%nat.
Proof.
  assert (E : mu 0 = 33%nat) by (vm_compute; reflexivity).
  rewrite <- E. unfold mu. apply filter_len_le. intros x _ Hx. lia.
Qed.
