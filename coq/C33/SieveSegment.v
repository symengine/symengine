(* C33 -- one segment of the sieve and the loop over segments (mark_slices, collect, segment_body, seg_loop). *)
From SE Require Import C33.SieveSpec C33.SieveArith.
From Coq Require Import ZifyN ZifyBool Lia Sorted.
Local Open Scope N_scope.
Local Open Scope res_scope.

(* the first odd multiple of n above start: [multiple] in [mark_slices], without wrap-around *)
Definition first_mult (n start : N) : N :=
  let m0 := (start / n + 1) * n in if N.even m0 then m0 + n else m0.

Lemma first_mult_spec n start :
  n mod 2 = 1 ->
  let m := first_mult n start in
  m mod 2 = 1 /\ (n | m) /\ start < m /\ m <= start + 2 * n /\
  (start / n + 1) * n <= start + n /\
  forall y, y mod 2 = 1 -> (n | y) -> start < y -> m <= y.
Proof.
  intros Hn. assert (H : n <> 0) by (intros ->; discriminate Hn).
  pose proof (N.div_mod start n H) as DM.
  pose proof (N.mod_lt start n H) as ML.
  unfold first_mult.
  set (q := start / n) in *. set (r := start mod n) in *. clearbody q r.
  assert (M0 : forall y, (n | y) -> start < y -> (q + 1) * n <= y /\
                 (y <> (q + 1) * n -> (q + 1) * n + n <= y)).
  { intros y [k ->] Hy.
    assert (q < k).
    { destruct (N.lt_ge_cases q k); auto.
      assert (k * n <= q * n) by (apply N.mul_le_mono_r; auto). lia. }
    split.
    - apply N.mul_le_mono_r; lia.
    - intros Ne. assert (k <> q + 1) by (intros ->; auto).
      assert ((q + 2) * n <= k * n) by (apply N.mul_le_mono_r; lia). lia. }
  assert (Hm0 : (q + 1) * n + r = start + n) by lia.
  assert (D0 : (n | (q + 1) * n)) by apply N.divide_factor_r.
  set (m0 := (q + 1) * n) in *. clearbody m0. clear DM.
  destruct (N.even m0) eqn:E; [apply even_true_mod in E | apply even_false_mod in E].
  - split; [lia |]. split; [apply N.divide_add_r; [exact D0 | apply N.divide_refl] |].
    do 3 (split; [lia |]). intros y Hy D L. apply M0; auto. intros ->. lia.
  - split; [lia |]. split; [exact D0 |].
    do 3 (split; [lia |]). intros y Hy D L. apply M0; auto.
Qed.

(* Bit i of the segment stands for the odd number start + 2 * i + 1 (start is even).  The
   slice assigned for n, which begins at the first odd multiple m of n above start, holds
   exactly the bits of the multiples of n in (start, finish]. *)
Lemma in_slice_char n start m finish i :
  n mod 2 = 1 -> start mod 2 = 0 -> m mod 2 = 1 -> (n | m) -> start < m -> m <= finish ->
  (forall y, y mod 2 = 1 -> (n | y) -> start < y -> m <= y) ->
  start + 2 * i + 1 <= finish ->
  (in_slice i ((m - start) / 2, 1 + (finish - m) / (2 * n), n) = true
   <-> (n | start + 2 * i + 1)).
Proof.
  intros Hn Hs Hm D L1 L2 Least Hx.
  assert (Hn0 : n <> 0) by (intros ->; discriminate Hn).
  set (st := (m - start) / 2).
  assert (Hst : m = start + 2 * st + 1) by (unfold st; clear - Hs Hm L1; lia).
  clearbody st.
  unfold in_slice. rewrite !andb_true_iff, N.leb_le, N.eqb_eq, N.ltb_lt. split.
  - intros [[A B] _].
    replace (start + 2 * i + 1) with (m + 2 * (i - st)) by (clear - Hst A; lia).
    apply N.divide_add_r; [exact D |]. apply N.divide_mul_r. apply mod0_divide; assumption.
  - intros Dx.
    assert (Lx : m <= start + 2 * i + 1) by (apply Least; [clear - Hs; lia | exact Dx | clear; lia]).
    assert (A : st <= i) by (clear - Hst Lx; lia).
    assert (Dk : (n | i - st)).
    { apply odd_coprime_half; [exact Hn |].
      replace (2 * (i - st)) with (start + 2 * i + 1 - m) by (clear - Hst A; lia).
      apply N.divide_sub_r; assumption. }
    split; [split; [exact A | apply divide_mod0; assumption] |].
    destruct Dk as [k Hk]. rewrite Hk, N.div_mul by exact Hn0.
    rewrite N.add_1_l. apply N.lt_succ_r.
    apply N.div_le_lower_bound; [clear - Hn0; lia |].
    replace (2 * n * k) with (2 * (k * n)) by (clear; lia). rewrite <- Hk. clear - Hst A Hx. lia.
Qed.

Lemma slice_last_bound n start m finish seg :
  n <> 0 -> start mod 2 = 0 -> m mod 2 = 1 -> start < m -> m <= finish ->
  finish <= start + 2 * seg - 1 ->
  (m - start) / 2 + (finish - m) / (2 * n) * n < seg.
Proof.
  intros Hn Hs Hm L1 L2 L3.
  pose proof (N.mul_div_le (finish - m) (2 * n) ltac:(lia)) as Q.
  set (q := (finish - m) / (2 * n)) in *.
  replace (2 * n * q) with (2 * (q * n)) in Q by lia.
  set (qn := q * n) in *. lia.
Qed.

Lemma div_le_self a b : a / b <= a.
Proof.
  destruct (N.eq_dec b 0) as [-> | Hb]; [lia |].
  pose proof (N.mul_div_le a b Hb).
  assert (1 * (a / b) <= b * (a / b)) by (apply N.mul_le_mono_r; lia). lia.
Qed.

Lemma one_plus_eqb q : (1 + q =? 0) = false.
Proof. lia. Qed.
Lemma one_plus_sub q : 1 + q - 1 = q.
Proof. lia. Qed.

(* the slice that [mark_slices] assigns [false] for n: start index, count, stride *)
Definition the_slice (n start finish : N) : slice :=
  let m := first_mult n start in ((m - start) / 2, 1 + (finish - m) / (2 * n), n).

(* n < 2^16 keeps n * n, and with finish < 2^31 every other product and sum, below 2^32 *)
Lemma mark_slices_cons n rest start finish seg :
  n mod 2 = 1 -> n < 65536 -> start mod 2 = 0 -> start <= finish -> finish < LIMIT_MAX ->
  finish <= start + 2 * seg - 1 ->
  mark_slices (n :: rest) start finish seg =
    if n * n <=? finish then
      if finish <? first_mult n start then mark_slices rest start finish seg
      else do more <- mark_slices rest start finish seg; Ok (the_slice n start finish :: more)
    else Ok [].
Proof.
  intros Hn Hn16 Hs L1 L2 L3. unfold LIMIT_MAX in L2.
  destruct (first_mult_spec n start Hn) as (M1 & _ & M3 & M4 & M5 & _).
  pose proof (div_le_self start n) as Q0.
  assert (Wn : n * n < W32).
  { assert (n * n <= 65535 * 65535) by (apply N.mul_le_mono; clear - Hn16; lia). unfold W32. lia. }
  cbn [mark_slices]. unfold the_slice, first_mult in *.
  set (q0 := start / n) in *. clearbody q0.
  rewrite (umul_small n n Wn). destruct (n * n <=? finish); [| reflexivity].
  rewrite (uadd_small q0 1), (umul_small (q0 + 1) n) by (unfold W32; clear - Q0 M5 L1 L2 Hn16; lia).
  set (m0 := (q0 + 1) * n) in *. clearbody m0.
  rewrite (uadd_small m0 n) by (unfold W32; clear - M5 L1 L2 Hn16; lia).
  set (m := if N.even m0 then m0 + n else m0) in *. clearbody m.
  destruct (N.ltb_spec finish m) as [E2 | E2]; [reflexivity |].
  rewrite (usub_small m start), (usub_small finish m), (umul_small 2 n)
    by (unfold W32; clear - M3 E2 L2 Hn16; lia).
  pose proof (slice_last_bound n start m finish seg ltac:(clear - Hn; lia) Hs M1 M3 E2 L3) as B.
  pose proof (div_le_self (finish - m) (2 * n)) as Q.
  set (q := (finish - m) / (2 * n)) in *. clearbody q.
  rewrite (uadd_small 1 q) by (unfold W32; clear - Q L2; lia).
  unfold slice_last. rewrite one_plus_eqb, one_plus_sub.
  rewrite (proj2 (N.ltb_lt _ _) B). reflexivity.
Qed.

Lemma mark_slices_spec seg start finish :
  start mod 2 = 0 -> start <= finish -> finish < LIMIT_MAX ->
  finish <= start + 2 * seg - 1 ->
  forall ps,
  StronglySorted N.lt ps ->
  (forall n, In n ps -> n mod 2 = 1 /\ 1 < n /\ n < start) ->
  (* every n that the loop reaches (the squares of all smaller entries are <= finish, so it
     has not stopped before n) is below 2^16, so that [umul n n] does not wrap *)
  (forall n, In n ps -> (forall n', In n' ps -> n' < n -> n' * n' <= finish) -> n < 65536) ->
  exists marks, mark_slices ps start finish seg = Ok marks /\
    forall i, start + 2 * i + 1 <= finish ->
      (existsb (in_slice i) marks = true <->
       exists n, In n ps /\ n * n <= finish /\ (n | start + 2 * i + 1)).
Proof.
  intros Hs L1 L2 L3.
  induction ps as [| n rest IH]; intros S Hps Hwrap.
  - exists []. split; [reflexivity |]. intros i Hi. cbn. split; [discriminate |].
    intros (n & [] & _).
  - destruct (Hps n (or_introl eq_refl)) as (Hn & Hn1 & Hn2).
    assert (Hn16 : n < 65536).
    { apply Hwrap; [left; auto |]. intros n' [<- | I] Hl; [lia |].
      pose proof (SS_lt_head _ _ _ S I). lia. }
    rewrite mark_slices_cons by auto.
    destruct (n * n <=? finish) eqn:E1.
    + destruct IH as (marks & Hm & Hmarks).
      * apply StronglySorted_inv in S; tauto.
      * intros; apply Hps; right; auto.
      * intros n2 I2 Hsm. apply Hwrap; [right; auto |].
        intros n' [<- | I'] Hl; [lia | apply Hsm; auto].
      * destruct (first_mult_spec n start Hn) as (M1 & M2 & M3 & M4 & M5 & M6).
        destruct (finish <? first_mult n start) eqn:E2.
        -- exists marks. split; auto. intros i Hi. rewrite (Hmarks i Hi). split.
           ++ intros (n' & I & Q & D). exists n'. split; [right |]; auto.
           ++ intros (n' & [<- | I] & Q & D).
              ** exfalso. apply N.ltb_lt in E2.
                 assert (first_mult n start <= start + 2 * i + 1); [| clear - E2 Hi H; lia].
                 apply M6; [clear - Hs; lia | exact D | clear; lia].
              ** exists n'; auto.
        -- rewrite Hm. cbn [bind]. eexists. split; [reflexivity |].
           intros i Hi. cbn [existsb]. rewrite orb_true_iff.
           unfold the_slice.
           rewrite (in_slice_char n start (first_mult n start) finish i) by (auto; lia).
           rewrite (Hmarks i Hi). split.
           ++ intros [D | (n' & I & Q & D)].
              ** exists n. split; [left; auto | split; [lia | auto]].
              ** exists n'. split; [right |]; auto.
           ++ intros (n' & [<- | I] & Q & D); [left; auto | right; exists n'; auto].
    + exists []. split; [reflexivity |]. intros i Hi. cbn [existsb]. split; [discriminate |].
      intros (n' & [<- | I] & Q & D); [lia |].
      pose proof (SS_lt_head _ _ _ S I).
      assert (n * n <= n' * n') by (apply N.mul_le_mono; lia). lia.
Qed.

Lemma collect_iter marks start finish seg :
  start <= finish -> finish < LIMIT_MAX -> finish <= start + 2 * seg - 1 ->
  forall k, 2 * k <= finish - start + 1 ->
  exists acc,
    N.iter k (collect_step marks start finish seg) (Ok (start + 1, [])) =
      Ok (start + 1 + 2 * k, acc) /\
    StronglySorted (fun a b => b < a) acc /\
    forall x, In x acc <->
      exists i, i < k /\ x = start + 2 * i + 1 /\ existsb (in_slice i) marks = false.
Proof.
  intros L1 L2 L3. unfold LIMIT_MAX in L2.
  induction k as [| k IH] using N.peano_ind; intros Hk.
  - exists []. split; [cbn; f_equal; f_equal; lia |]. split; [constructor |].
    intros x; split; [intros [] | intros (i & Hi & _); lia].
  - destruct IH as (acc & E & S & M); [lia |].
    rewrite N.iter_succ, E. unfold collect_step. cbn [bind].
    replace (start + 1 + 2 * k <=? finish) with true by lia.
    rewrite (usub_small (start + 1 + 2 * k) start) by (unfold W32; lia).
    replace ((start + 1 + 2 * k - start) / 2) with k by lia.
    unfold is_prime_read. replace (k <? seg) with true by lia. cbn [bind].
    rewrite uadd_small by (unfold W32; lia).
    replace (start + 1 + 2 * k + 2) with (start + 1 + 2 * N.succ k) by lia.
    eexists. split; [reflexivity |].
    destruct (existsb (in_slice k) marks) eqn:Ex; cbn [negb].
    + split; auto. intros x. rewrite M. split.
      * intros (i & Hi & Hx & Hm). exists i. repeat split; auto; lia.
      * intros (i & Hi & Hx & Hm). exists i. repeat split; auto.
        destruct (N.eq_dec i k) as [-> | Ne]; [congruence | lia].
    + split.
      * constructor; auto. apply Forall_forall. intros y Hy. apply M in Hy.
        destruct Hy as (i & Hi & -> & _). lia.
      * intros x. cbn [In]. rewrite M. split.
        -- intros [<- | (i & Hi & Hx & Hm)].
           ++ exists k. repeat split; auto; lia.
           ++ exists i. repeat split; auto; lia.
        -- intros (i & Hi & Hx & Hm).
           destruct (N.eq_dec i k) as [-> | Ne]; [left; lia | right].
           exists i. repeat split; auto; lia.
Qed.

Lemma collect_spec marks start finish seg :
  start <= finish -> finish < LIMIT_MAX -> finish <= start + 2 * seg - 1 ->
  exists news, collect marks start finish seg = Ok news /\
    StronglySorted N.lt news /\
    forall x, In x news <->
      exists i, x = start + 2 * i + 1 /\ x <= finish /\ existsb (in_slice i) marks = false.
Proof.
  intros L1 L2 L3. unfold collect.
  rewrite uadd_small by (unfold W32, LIMIT_MAX in *; lia).
  set (cnt := (finish - start + 1) / 2).
  destruct (collect_iter marks start finish seg L1 L2 L3 cnt) as (acc & E & S & M);
    [unfold cnt; lia |].
  rewrite E. cbn [bind].
  replace (start + 1 + 2 * cnt <=? finish) with false by (unfold cnt; lia).
  exists (rev acc). split; auto. split; [apply SS_rev; auto |].
  intros x. rewrite <- in_rev, M. split.
  - intros (i & Hi & Hx & Hm). exists i. repeat split; auto. unfold cnt in Hi. lia.
  - intros (i & Hx & Hf & Hm). exists i. repeat split; auto. unfold cnt. lia.
Qed.

Lemma segment_body_spec l start limit seg :
  primes_upto l (start - 1) ->
  (exists ps, l = 2 :: ps) ->
  start mod 2 = 0 -> 4 <= start -> start <= limit -> limit < LIMIT_MAX -> seg_ok seg ->
  (forall p, Nprime p -> p * p <= limit -> p < start) ->
  exists news, segment_body l start limit seg = Ok news /\
    StronglySorted N.lt news /\
    forall x, In x news <->
      (start - 1 < x /\ x <= N.min (start + 2 * seg - 1) limit /\ Nprime x).
Proof.
  intros [S H] [ps ->] Hs H4 L1 L2 [Hseg1 Hseg2] Hsq. unfold LIMIT_MAX in L2.
  unfold segment_body.
  rewrite (umul_small seg 2) by (unfold W32; lia).
  rewrite (uadd_small start (seg * 2)) by (unfold W32; lia).
  rewrite (usub_small (start + seg * 2) 1) by (unfold W32; lia).
  replace (start + seg * 2 - 1) with (start + 2 * seg - 1) by lia.
  set (finish := N.min (start + 2 * seg - 1) limit).
  assert (F1 : start <= finish) by (unfold finish; lia).
  assert (F2 : finish < 2147483648) by (unfold finish; lia).
  assert (F3 : finish <= start + 2 * seg - 1) by (unfold finish; lia).
  assert (F4 : finish <= limit) by (unfold finish; lia).
  clearbody finish. cbn [tl].
  assert (Hps : forall n, In n ps -> Nprime n /\ n mod 2 = 1 /\ 2 < n /\ n < start).
  { intros n I. pose proof (SS_lt_head _ _ _ S I).
    destruct (proj1 (H n) (or_intror I)) as [P L].
    split; [auto | split; [apply prime_odd; auto | split; [auto | lia]]]. }
  destruct (mark_slices_spec seg start finish Hs F1 F2 F3 ps) as (marks & Em & Hmarks).
  - apply StronglySorted_inv in S; tauto.
  - intros n I. destruct (Hps n I) as (_ & ? & ? & ?). repeat split; auto; lia.
  - (* 46349 is prime and 46349^2 > 2^31 > finish.  An n >= 2^16 in ps is below start, so
       46349 is in ps as well (l holds all primes below start) and comes before n: the loop
       stops there and never reaches n. *)
    intros n I Hsm. destruct (N.lt_ge_cases n 65536) as [|G]; auto. exfalso.
    destruct (Hps n I) as (_ & _ & _ & Ln).
    assert (I' : In 46349 (2 :: ps)) by (apply H; split; [apply prime_46349 | lia]).
    destruct I' as [E | I']; [discriminate |].
    specialize (Hsm 46349 I' ltac:(lia)). lia.
  - rewrite Em. cbn [bind].
    destruct (collect_spec marks start finish seg F1 F2 F3) as (news & Ec & Sn & Hn).
    exists news. split; auto. split; auto.
    intros x. rewrite Hn. split.
    + intros (i & -> & Hf & Hm). split; [lia |]. split; auto.
      destruct (prime_or_factor (start + 2 * i + 1)) as [P | (p & Pp & D & Q)]; [lia | auto |].
      exfalso. assert (Ex : existsb (in_slice i) marks = true); [| congruence].
      apply Hmarks; auto. exists p. split; [| split; [lia | auto]].
      assert (I : In p (2 :: ps)).
      { apply H. split; auto. assert (p < start) by (apply Hsq; auto; lia). lia. }
      destruct I as [<- | I]; auto.
      exfalso. apply divide_mod0 in D; lia.
    + intros (Lx & Lf & P).
      assert (x <> start).
      { intros ->. apply (Nprime_no_divisor start 2 P); try lia.
        apply mod0_divide; lia. }
      assert (Ox : x mod 2 = 1) by (apply prime_odd; auto; lia).
      set (i := (x - start) / 2).
      assert (Hi : x = start + 2 * i + 1) by (unfold i; lia).
      clearbody i. subst x.
      exists i. split; auto. split; auto.
      destruct (existsb (in_slice i) marks) eqn:Ex; auto. exfalso.
      apply Hmarks in Ex; auto. destruct Ex as (n & I & Q & D).
      destruct (Hps n I) as (_ & _ & ? & ?).
      apply (Nprime_no_divisor _ n P D); lia.
Qed.

Lemma vec_push_nil v : vec_push_list v [] = v.
Proof. destruct v as [l]. unfold vec_push_list. cbn. rewrite app_nil_r. reflexivity. Qed.

Lemma vec_push_push v a b :
  vec_push_list (vec_push_list v a) b = vec_push_list v (a ++ b).
Proof. unfold vec_push_list. cbn. rewrite app_assoc. reflexivity. Qed.

Lemma live_push v a : live (vec_push_list v a) = live v ++ a.
Proof. reflexivity. Qed.

Lemma seg_loop_spec v start limit seg :
  (exists ps, live v = 2 :: ps) -> primes_upto (live v) (start - 1) ->
  start mod 2 = 0 -> 4 <= start -> start <= limit -> limit < LIMIT_MAX -> seg_ok seg ->
  (forall p, Nprime p -> p * p <= limit -> p < start) ->
  exists news, seg_loop v start limit seg = Ok (vec_push_list v news) /\
               primes_upto (live v ++ news) limit.
Proof.
  intros [ps Hps] P0 Hs H4 L1 L2 Hseg Hsq. pose proof Hseg as [Hseg1 Hseg2].
  unfold seg_loop.
  set (q := (limit - start) / (2 * seg)).
  assert (Hq : 2 * seg * q <= limit - start) by (apply N.mul_div_le; lia).
  assert (Hq' : limit - start < 2 * seg * N.succ q) by (apply N.mul_succ_div_gt; lia).
  clearbody q.
  assert (It : forall k, k <= q + 1 ->
    exists news,
      N.iter k (seg_loop_step limit seg) (Ok (start, v)) =
        Ok (start + 2 * seg * k, vec_push_list v news) /\
      primes_upto (live v ++ news) (N.min (start + 2 * seg * k - 1) limit)).
  { induction k as [| k IH] using N.peano_ind; intros Hk.
    - exists []. rewrite vec_push_nil, app_nil_r, N.mul_0_r, N.add_0_r. split; [reflexivity |].
      replace (N.min (start - 1) limit) with (start - 1) by (clear - L1; lia). exact P0.
    - destruct IH as (news & E & P); [lia |].
      assert (Hkq : 2 * seg * k <= 2 * seg * q) by (apply N.mul_le_mono_l; lia).
      assert (Hn : start + 2 * seg * N.succ k = start + 2 * seg * k + 2 * seg) by lia.
      assert (Hc2 : (start + 2 * seg * k) mod 2 = 0).
      { replace (2 * seg * k) with (2 * (seg * k)) by lia. clear - Hs. set (sk := seg * k). lia. }
      rewrite Hn. set (cur := start + 2 * seg * k) in *.
      assert (Hc : cur <= limit) by (clear - Hkq Hq L1; lia).
      assert (Hc0 : start <= cur) by apply N.le_add_r.
      clearbody cur. clear Hn Hkq Hq Hq' Hk.
      rewrite N.iter_succ, E. unfold seg_loop_step. cbn [bind].
      rewrite (proj2 (N.leb_le _ _) Hc), live_push.
      assert (A1 : primes_upto (live v ++ news) (cur - 1)).
      { replace (cur - 1) with (N.min (cur - 1) limit) by (clear - Hc; lia). exact P. }
      assert (A2 : exists ps', live v ++ news = 2 :: ps').
      { exists (ps ++ news). rewrite Hps. reflexivity. }
      assert (A4 : forall p, Nprime p -> p * p <= limit -> p < cur).
      { intros p Pp Q. specialize (Hsq p Pp Q). clear - Hsq Hc0. lia. }
      destruct (segment_body_spec _ cur limit seg A1 A2 Hc2 ltac:(clear - H4 Hc0; lia) Hc L2 Hseg A4)
        as (news2 & Eb & S2 & H2).
      rewrite Eb. cbn [bind].
      rewrite (umul_small 2 seg), (uadd_small cur (2 * seg)) by (unfold W32, LIMIT_MAX in *; clear - Hseg2 Hc L2; lia).
      rewrite vec_push_push. exists (news ++ news2). split; [reflexivity |].
      rewrite app_assoc.
      apply primes_upto_extend with (a := cur - 1); [exact A1 | exact S2 | exact H2 |].
      clear - Hc Hseg1. lia. }
  destruct (It (q + 1) ltac:(lia)) as (news & E & P).
  rewrite E. cbn [bind].
  replace (start + 2 * seg * (q + 1) <=? limit) with false by lia.
  exists news. split; auto.
  replace (N.min (start + 2 * seg * (q + 1) - 1) limit) with limit in P by lia. auto.
Qed.
