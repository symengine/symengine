(* C39 -- CoeffVisitor / coeff on the univariate integer-polynomial fragment
     p = c0 + sum_i a_i * x^(j_i)        (keys x or Pow(x, j), j >= 2; values Integers)
   coeff_upoly_spec: coeff(p, x, n) is exactly the dictionary content for the exponent n
   (the sum of the values stored under x^n; the Add's coef_ for n = 0);
   coeff_reconstruct_partial: the coefficients reconstruct p (as a polynomial function over Z).
   Plus the entry conditions of coeff.  The general (multivariate, symbolic-coefficient) case is
   covered by the correspondence runs, not by these theorems. *)
From SE Require Export C39.CoeffModel C39.Atoms.
From Coq Require Import Lia ZArith.
Local Open Scope Z_scope.

Definition upoly_dict (x : expr) (l : list (Z * Z)) : list (expr * number) :=
  map (fun ja => (xpow x (fst ja), NInt (snd ja))) l.
Definition upoly_expr (x : expr) (c0 : Z) (l : list (Z * Z)) : expr := EAdd (NInt c0) (upoly_dict x l).

(* the sum of the values stored under the exponent n *)
Definition dict_coef (n : Z) (l : list (Z * Z)) : Z :=
  fold_right (fun ja acc => (if fst ja =? n then snd ja else 0) + acc) 0 l.
Definition ucoef (n c0 : Z) (l : list (Z * Z)) : Z := (if n =? 0 then c0 else 0) + dict_coef n l.

Lemma cf_visit_xpow : forall f nm j n, 1 <= j ->
  cf_visit (S f) (ESym nm) (ENum (NInt n)) (xpow (ESym nm) j) = Ok (if j =? n then E1 else E0).
Proof.
  intros f nm j n Hj. unfold xpow. destruct (j =? 1) eqn:E.
  - apply Z.eqb_eq in E. subst j. cbn [cf_visit]. unfold cf_symbol.
    rewrite (sym_eqb_refl (ESym nm) eq_refl). cbn [andb negb is_int_one].
    rewrite (Z.eqb_sym 1 n). destruct (n =? 1); reflexivity.
  - cbn [cf_visit]. rewrite (sym_eqb_refl (ESym nm) eq_refl), eqb_nums. cbn [Cmp.num_eqb andb negb].
    destruct (j =? n); reflexivity.
Qed.

Definition cf_add_step (f : nat) (x n : expr) (acc : res (number * list (expr * number))) (p : expr * number) :=
  bind acc (fun st => bind (cf_visit f x n (fst p)) (fun r =>
    if negb (is_int_zero r) then coef_dict_add_term (fst st) (snd st) (snd p) r else Ok st)).

Lemma cf_visit_add : forall f x n c d,
  cf_visit (S f) x n (EAdd c d) =
  bind (fold_left (cf_add_step f x n) d (Ok (NInt 0, [])))
       (fun cd => bind (if is_int_zero n then nadd (fst cd) c else Ok (fst cd))
                       (fun coef => Ok (add_from_dict coef (snd cd)))).
Proof. reflexivity. Qed.

Lemma upoly_fold : forall f nm n l acc, (forall j a, In (j, a) l -> 1 <= j) ->
  fold_left (cf_add_step (S f) (ESym nm) (ENum (NInt n))) (upoly_dict (ESym nm) l) (Ok (NInt acc, [])) =
  Ok (NInt (acc + dict_coef n l), []).
Proof.
  intros f nm n. induction l as [|[j a] l IH]; intros acc Hl.
  - cbn [upoly_dict map fold_left dict_coef fold_right]. rewrite Z.add_0_r. reflexivity.
  - cbn [upoly_dict map fold_left fst snd]. fold (upoly_dict (ESym nm) l).
    unfold cf_add_step at 2. cbn [bind fst snd].
    rewrite (cf_visit_xpow f nm j n (Hl j a (or_introl eq_refl))). cbn [bind].
    cbn [dict_coef fold_right fst snd]. fold (dict_coef n l).
    destruct (j =? n).
    + cbn [E1 is_int_zero Z.eqb negb coef_dict_add_term]. unfold nmul, nadd. cbn [NumModel.num_mul NumModel.mul_step NumModel.num_add NumModel.add_step bind fst snd].
      rewrite IH by (intros j' a' H; eapply Hl; right; exact H).
      replace (acc + a * 1 + dict_coef n l) with (acc + (a + dict_coef n l)) by lia. reflexivity.
    + cbn [E0 is_int_zero Z.eqb negb].
      rewrite IH by (intros j' a' H; eapply Hl; right; exact H).
      replace (acc + (0 + dict_coef n l)) with (acc + dict_coef n l) by lia. reflexivity.
Qed.

Theorem coeff_upoly_spec : forall nm c0 l n, (forall j a, In (j, a) l -> 1 <= j) ->
  coeff (upoly_expr (ESym nm) c0 l) (ESym nm) (ENum (NInt n)) = Ok (ENum (NInt (ucoef n c0 l))).
Proof.
  intros nm c0 l n Hl. unfold coeff, upoly_expr.
  change (weight (EAdd (NInt c0) (upoly_dict (ESym nm) l)))
    with (S (S (S (fold_right (fun p acc => weight (fst p) + 6 + acc)%nat 0%nat (upoly_dict (ESym nm) l))))).
  rewrite cf_visit_add, upoly_fold by exact Hl. cbn [bind fst snd is_int_zero add_from_dict].
  unfold ucoef. destruct (n =? 0).
  - unfold nadd. cbn [NumModel.num_add NumModel.add_step bind]. f_equal. f_equal. f_equal. lia.
  - cbn [bind]. reflexivity.
Qed.

Definition zcoef (r : res expr) : Z := match r with Ok (ENum (NInt z)) => z | _ => 0 end.
(* sum_{k = s}^{s+len-1} g k  and  sum_{k = 0}^{N} g k *)
Definition ssum (g : Z -> Z) (s len : nat) : Z := fold_right (fun k acc => g (Z.of_nat k) + acc) 0 (seq s len).
Definition zsum (N : nat) (g : Z -> Z) : Z := ssum g 0 (S N).
Definition peval (xv c0 : Z) (l : list (Z * Z)) : Z :=
  c0 + fold_right (fun ja acc => snd ja * xv ^ fst ja + acc) 0 l.

Lemma ssum_ext : forall (g h : Z -> Z) s len,
  (forall k, (s <= k < s + len)%nat -> g (Z.of_nat k) = h (Z.of_nat k)) -> ssum g s len = ssum h s len.
Proof.
  intros g h s len. unfold ssum. revert s. induction len as [|len IH]; intros s H; [reflexivity|].
  cbn [seq fold_right]. rewrite (H s) by lia. rewrite IH; [reflexivity|]. intros k Hk. apply H. lia.
Qed.
Lemma ssum_add : forall (g h : Z -> Z) s len, ssum (fun n => g n + h n) s len = ssum g s len + ssum h s len.
Proof.
  intros g h s len. unfold ssum. revert s. induction len as [|len IH]; intros s; [reflexivity|].
  cbn [seq fold_right]. rewrite IH. lia.
Qed.
Lemma ssum_zero : forall (g : Z -> Z) s len, (forall k, (s <= k < s + len)%nat -> g (Z.of_nat k) = 0) -> ssum g s len = 0.
Proof.
  intros g s len. unfold ssum. revert s. induction len as [|len IH]; intros s H; [reflexivity|].
  cbn [seq fold_right]. rewrite (H s) by lia. rewrite IH; [reflexivity|]. intros k Hk. apply H. lia.
Qed.
Lemma ssum_single : forall (j a xv : Z) s len, (Z.of_nat s <= j < Z.of_nat s + Z.of_nat len) ->
  ssum (fun n => (if j =? n then a else 0) * xv ^ n) s len = a * xv ^ j.
Proof.
  intros j a xv s len. revert s. induction len as [|len IH]; intros s H; [lia|].
  unfold ssum. cbn [seq fold_right]. fold (ssum (fun n => (if j =? n then a else 0) * xv ^ n) (S s) len).
  destruct (j =? Z.of_nat s) eqn:E.
  - apply Z.eqb_eq in E. subst j. rewrite ssum_zero; [lia|].
    intros k Hk. destruct (Z.of_nat s =? Z.of_nat k) eqn:E; [apply Z.eqb_eq in E; lia|reflexivity].
  - apply Z.eqb_neq in E. rewrite IH by lia. lia.
Qed.

Lemma zsum_ucoef : forall (N : nat) xv c0 l, (forall j a, In (j, a) l -> 1 <= j <= Z.of_nat N) ->
  zsum N (fun n => ucoef n c0 l * xv ^ n) = peval xv c0 l.
Proof.
  intros N xv c0 l Hl. unfold zsum, peval.
  transitivity (ssum (fun n => (if 0 =? n then c0 else 0) * xv ^ n) 0 (S N) + ssum (fun n => dict_coef n l * xv ^ n) 0 (S N)).
  { rewrite <- ssum_add. apply ssum_ext. intros k Hk. unfold ucoef. rewrite (Z.eqb_sym 0). lia. }
  rewrite (ssum_single 0 c0 xv 0 (S N)) by lia. rewrite Z.pow_0_r, Z.mul_1_r. f_equal.
  induction l as [|[j a] l IH].
  - cbn [fold_right]. apply ssum_zero. intros k Hk. reflexivity.
  - cbn [fold_right fst snd]. rewrite <- IH by (intros j' a' H; apply (Hl j' a'); right; exact H).
    rewrite <- (ssum_single j a xv 0 (S N)) by (specialize (Hl j a (or_introl eq_refl)); lia).
    rewrite <- ssum_add. apply ssum_ext. intros k Hk. cbn [dict_coef fold_right fst snd]. fold (dict_coef (Z.of_nat k) l). lia.
Qed.

(* coeff_reconstruct, full statement wanted: for every expanded polynomial p in x (coefficients
   arbitrary x-free expressions), sum_n coeff(p, x, n) * x^n  is  p  in every commutative ring.
   Proved here: the univariate case with Integer coefficients, as polynomial functions over Z. *)
Theorem coeff_reconstruct_partial : forall nm c0 l (N : nat) (xv : Z),
  (forall j a, In (j, a) l -> 1 <= j <= Z.of_nat N) ->
  zsum N (fun n => zcoef (coeff (upoly_expr (ESym nm) c0 l) (ESym nm) (ENum (NInt n))) * xv ^ n)
  = peval xv c0 l.
Proof.
  intros nm c0 l N xv Hl. rewrite <- (zsum_ucoef N xv c0 l Hl). unfold zsum.
  apply ssum_ext. intros k Hk. rewrite coeff_upoly_spec; [reflexivity|].
  intros j a H. specialize (Hl j a H). lia.
Qed.

Theorem coeff_requires_symbol : forall b x n,
  (forall nm, x <> ESym nm) -> (forall nm args, x <> EFunSym nm args) -> coeff b x n = ErrExn EXN_NOTIMPL.
Proof.
  intros b x n H1 H2. unfold coeff. destruct x; try reflexivity.
  - exfalso. eapply H1. reflexivity.
  - exfalso. eapply H2. reflexivity.
Qed.
(* a Dummy is rejected although it is a Symbol (is_a<Symbol>, not is_a_sub) *)
Example coeff_dummy_rejected : forall b nm i n, coeff b (EDummy nm i) n = ErrExn EXN_NOTIMPL.
Proof. reflexivity. Qed.
