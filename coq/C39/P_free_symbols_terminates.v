(* C39 obligation: the fuel of the modelled traversals is always enough
   (the out-of-fuel flag vs_out stays false, has_symbol never answers None). *)
From SE Require Import C39.Atoms.
Theorem C39_traversals_terminate :
  (forall e, vs_out (free_symbols_st e) = false) /\
  (forall ks e, vs_out (atoms_st ks e) = false) /\
  (forall b x, has_symbol b x <> None).
Proof.
  split; [exact fs_terminates|]. split; [exact atoms_terminates|].
  intros b x H. destruct (has_symbol_spec b x) as (r & Hr & _). congruence.
Qed.
Print Assumptions C39_traversals_terminate.
