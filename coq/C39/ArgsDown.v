(* C39 -- from a node down to its get_args: an occurrence of cost n+1 in a node is an occurrence
   of cost n in one of its arguments (also when the argument is a Mul / Pow node that
   Add::get_args or Mul::get_args builds). *)
From SE Require Export C39.EqbTransfer.
From SE Require Import Expr.Unfold.
From Coq Require Import Lia.
Local Open Scope N_scope.

Lemma tree_ok_num : forall n, tree_ok (ENum n) = true.
Proof. reflexivity. Qed.
Lemma tree_ok_bool : forall b, tree_ok (EBool b) = true.
Proof. reflexivity. Qed.
Lemma tree_ok_subs_arg : forall a d, tree_ok (ESubs a d) = true -> tree_ok a = true.
Proof. intros a d H. eapply tree_ok_child; [exact H|]. left. reflexivity. Qed.

Definition occn_struct (B : bmode) (s : expr) (n : nat) (e : expr) : Prop :=
  occn B s n e /\ ~ (is_sym s = true /\ e = s).

Lemma occn_num : forall B s n x, occn B s n (ENum x) -> False.
Proof.
  intros B s n x H. destruct n; [destruct H|]. cbn [occn] in H. destruct H as [[Hs <-]|[]]. discriminate.
Qed.

(* one-level introduction / inversion (stated with variable indices so that [cbn] unfolds
   exactly one level) *)
Lemma occn_pow_intro : forall B s m b x, occn B s m b \/ occn B s m x -> occn B s (S m) (EPow b x).
Proof. intros. cbn [occn]. right. assumption. Qed.
Lemma occn_mul_intro : forall B s m c d k v, In (k, v) d -> occn B s m k \/ occn B s m v ->
  occn B s (S (S m)) (EMul c d).
Proof. intros. cbn [occn]. right. exists k, v. auto. Qed.
Lemma occn_mul_inv : forall B s n c d, occn B s n (EMul c d) ->
  exists m, n = S (S m) /\ exists k v, In (k, v) d /\ (occn B s m k \/ occn B s m v).
Proof.
  intros B s n c d H. destruct n as [|n]; [destruct H|]. cbn [occn] in H.
  destruct H as [[Hs <-]|H]; [discriminate|]. destruct n as [|m]; [destruct H|]. exists m. auto.
Qed.
Lemma occn_pow_inv : forall B s n b x, occn B s n (EPow b x) ->
  exists m, n = S m /\ (occn B s m b \/ occn B s m x).
Proof.
  intros B s n b x H. destruct n as [|m]; [destruct H|]. cbn [occn] in H.
  destruct H as [[Hs <-]|H]; [discriminate|]. exists m. auto.
Qed.

Lemma occn_mul_from_dict_down : forall B s j v c dk, nis_zero v = false ->
  occn B s j (EMul c dk) -> occn B s j (mul_from_dict v dk).
Proof.
  intros B s j v c dk Hv H. apply occn_mul_inv in H. destruct H as (m & -> & k & x & Hin & Hk).
  destruct dk as [|[k0 x0] [|p r]]; [destruct Hin| |rewrite mul_from_dict_many, Hv; eapply occn_mul_intro; eauto].
  destruct Hin as [Hin|[]]. inversion Hin; subst k0 x0. clear Hin. rewrite mul_from_dict_single, Hv.
  destruct (nis_one v); [|eapply occn_mul_intro; [left; reflexivity|exact Hk]].
  destruct (is_int_one x) eqn:Ex.
  - destruct Hk as [Hk|Hk]; [eapply occn_mono; [|exact Hk]; lia|].
    destruct x; try discriminate. destruct (occn_num _ _ _ _ Hk).
  - apply occn_pow_intro. destruct Hk as [Hk|Hk]; [left|right]; (eapply occn_mono; [|exact Hk]; lia).
Qed.

Lemma occn_as_mul_down : forall B s m k v, nis_zero v = false ->
  occn B s m k -> occn B s (S (S m)) (as_mul k v).
Proof.
  intros B s m k v NZ Hk.
  assert (D : occn B s (S (S m)) (EMul v [(k, E1)])) by (eapply occn_mul_intro; [left; reflexivity|left; exact Hk]).
  destruct k; try exact D; cbn [as_mul].
  - eapply occn_mono; [|eapply occn_mul_from_dict_down; [exact NZ|exact Hk]]. lia.
  - apply occn_pow_inv in Hk. destruct Hk as (j & -> & Hk).
    eapply occn_mono; [|eapply occn_mul_intro; [left; reflexivity|exact Hk]]. lia.
Qed.

Lemma occn_arg_down : forall B s m e, b_sets B = false -> tree_ok e = true -> is_subs e = false ->
  occn B s (S m) e ->
  (is_sym s = true /\ e = s) \/ exists t, In t (get_args e) /\ occn B s m t.
Proof.
  intros B s m e HB Hok Hsub H. apply occn_S in H. destruct H as [H|(c & Hc & H)]; [left; exact H|right].
  apply occ_child_in in Hc.
  destruct e; cbn [children occ_cost] in Hc, H; rewrite ?Nat.sub_0_r in H; cbn [get_args];
    try (exists c; split; [exact Hc|exact H]; fail); try (destruct Hc; fail).
  - (* Add *)
    apply in_map_iff in Hc. destruct Hc as ([k v] & <- & Hin). cbn [fst] in H.
    destruct m as [|[|m']]; try (destruct H; fail). cbn [Nat.sub] in H. rewrite Nat.sub_0_r in H.
    destruct (bad_add _ _ (tree_ok_node _ Hok)) as [_ NZ]. specialize (NZ k v Hin).
    exists (add_term_arg (k, v)). split; [apply in_or_app; right; apply in_map; exact Hin|].
    rewrite add_term_arg_closed. destruct (Cmp.num_eqb v (NInt 1)); [eapply occn_mono; [|exact H]; lia|].
    destruct (Cmp.num_eqb v (NInt 0)) eqn:E0; [|apply occn_as_mul_down; [exact NZ|exact H]].
    destruct v; try discriminate E0. cbn [nis_zero Cmp.num_eqb] in *. congruence.
  - (* Mul *)
    apply in_flat_map in Hc. destruct Hc as ([k v] & Hin & Hc). cbn [fst snd] in Hc.
    destruct m as [|m']; [destruct H|]. cbn [Nat.sub] in H. rewrite Nat.sub_0_r in H.
    exists (mul_term_arg (k, v)). split; [apply in_or_app; right; apply in_map; exact Hin|].
    unfold mul_term_arg. cbn [fst snd]. destruct (is_int_one v) eqn:E.
    + destruct Hc as [<-|[<-|[]]]; [eapply occn_mono; [|exact H]; lia|].
      destruct v; try discriminate. destruct (occn_num _ _ _ _ H).
    + apply occn_pow_intro. destruct Hc as [<-|[<-|[]]]; auto.
  - discriminate.
  - exists c. split; [cbn [In] in *; tauto|exact H].
Qed.
