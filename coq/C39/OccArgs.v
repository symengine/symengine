(* C39 -- occurrences and get_args: an occurrence inside an argument is an occurrence in the
   node (for modes that do not honour the set binders), inversion lemmas for [occurs]. *)
From SE Require Export C39.QueryLemmas.
From SE Require Import Expr.Unfold.
Local Open Scope N_scope.

Lemma occurs_num_inv : forall B s n, occurs B s (ENum n) -> False.
Proof. intros B s n H. apply occurs_inv in H. destruct H as [[Hs <-]|(c & [] & _)]. discriminate. Qed.
Lemma occurs_bool_inv : forall B s b, occurs B s (EBool b) -> False.
Proof. intros B s b H. apply occurs_inv in H. destruct H as [[Hs <-]|(c & [] & _)]. discriminate. Qed.
Lemma occurs_sym_inv : forall B s e, is_sym e = true -> occurs B s e -> s = e.
Proof.
  intros B s e He H. apply occurs_inv in H. destruct H as [[_ ->]|(c & Hc & _)]; [reflexivity|].
  destruct e; try discriminate; destruct Hc.
Qed.
Lemma occurs_pow_inv : forall B s b x, occurs B s (EPow b x) -> occurs B s b \/ occurs B s x.
Proof.
  intros B s b x H. apply occurs_inv in H. destruct H as [[Hs <-]|(c & [<-|[<-|[]]] & H)]; [discriminate|auto|auto].
Qed.
Lemma occurs_mul_inv : forall B s c d, occurs B s (EMul c d) ->
  exists k v, In (k, v) d /\ (occurs B s k \/ occurs B s v).
Proof.
  intros B s c d H. apply occurs_inv in H. destruct H as [[Hs <-]|H]; [discriminate|]. apply ex_in_flat. exact H.
Qed.
Lemma occurs_add_inv : forall B s c d, occurs B s (EAdd c d) ->
  exists k v, In (k, v) d /\ occurs B s k.
Proof.
  intros B s c d H. apply occurs_inv in H. destruct H as [[Hs <-]|H]; [discriminate|]. apply ex_in_fst. exact H.
Qed.
Lemma occurs_subs_inv : forall B s a d, occurs B s (ESubs a d) ->
  (occurs B s a /\ (b_subs B = true -> ~ In s (map fst d)))
  \/ (b_subs B = false /\ exists k v, In (k, v) d /\ occurs B s k)
  \/ (exists k v, In (k, v) d /\ occurs B s v).
Proof.
  intros B s a d H. apply occurs_inv in H. destruct H as [[Hs <-]|(c & Hc & H)]; [discriminate|].
  destruct Hc as [[-> Hc]|[[Hb (v & Hin)]|(k & Hin)]]; eauto 8.
Qed.

Lemma occurs_mul_coef : forall B s v c d, occurs B s (EMul v d) -> occurs B s (EMul c d).
Proof.
  intros B s v c d H. apply occurs_mul_inv in H.
  destruct H as (k & x & Hin & [H|H]); [eapply O_mul_key|eapply O_mul_exp]; eauto.
Qed.
Lemma occurs_mul_from_dict : forall B s v dk c,
  occurs B s (mul_from_dict v dk) -> occurs B s (EMul c dk).
Proof.
  intros B s v dk c. destruct dk as [|[k x] [|p r]].
  - rewrite mul_from_dict_nil. intros H. destruct (occurs_num_inv _ _ _ H).
  - rewrite mul_from_dict_single. destruct (nis_zero v); [intros H; destruct (occurs_num_inv _ _ _ H)|].
    destruct (nis_one v); [|apply occurs_mul_coef].
    destruct (is_int_one x); [intros H; eapply O_mul_key; [left; reflexivity|exact H]|].
    intros H. apply occurs_pow_inv in H. destruct H; [eapply O_mul_key|eapply O_mul_exp]; try (left; reflexivity); assumption.
  - rewrite mul_from_dict_many. destruct (nis_zero v); [intros H; destruct (occurs_num_inv _ _ _ H)|apply occurs_mul_coef].
Qed.
Lemma occurs_as_mul : forall B s k v, occurs B s (as_mul k v) -> occurs B s k.
Proof.
  intros B s k v.
  assert (D : occurs B s (EMul v [(k, E1)]) -> occurs B s k).
  { intros H. apply occurs_mul_inv in H. destruct H as (k' & v' & [Hin|[]] & [H|H]); inversion Hin; subst; [exact H|].
    destruct (occurs_num_inv _ _ _ H). }
  destruct k; try exact D; cbn [as_mul].
  - apply occurs_mul_from_dict.
  - intros H. apply occurs_mul_inv in H. destruct H as (k' & v' & [Hin|[]] & [H|H]); inversion Hin; subst;
      [apply O_pow_base|apply O_pow_exp]; exact H.
Qed.
Lemma occurs_add_term_arg : forall B s k v, occurs B s (add_term_arg (k, v)) -> occurs B s k.
Proof.
  intros B s k v. rewrite add_term_arg_closed. destruct (Cmp.num_eqb v (NInt 1)); [auto|].
  destruct (Cmp.num_eqb v (NInt 0)); [intros H; destruct (occurs_num_inv _ _ _ H)|apply occurs_as_mul].
Qed.
Lemma occurs_mul_term_arg : forall B s k v, occurs B s (mul_term_arg (k, v)) ->
  occurs B s k \/ occurs B s v.
Proof.
  intros B s k v. unfold mul_term_arg. cbn [fst snd]. destruct (is_int_one v); [auto|apply occurs_pow_inv].
Qed.

(* an occurrence in an argument is an occurrence in the node (not for Subs, whose arguments
   include the bound variables; not when set binders are honoured) *)
Lemma occ_child_plain : forall B s e c, b_sets B = false -> is_subs e = false ->
  In c (children e) -> occ_child B s e c.
Proof.
  intros B s e c HB Hsub H. destruct e; try exact H; [|discriminate].
  cbn [occ_child]. unfold set_binder_node. rewrite HB. exact H.
Qed.

Lemma occ_arg_up : forall B s e p, b_sets B = false -> is_subs e = false ->
  In p (get_args e) -> occurs B s p -> occurs B s e.
Proof.
  intros B s e p HB Hsub Hin Hocc.
  assert (UP : forall c, In c (children e) -> occurs B s c -> occurs B s e).
  { intros c Hc Ho. eapply occurs_child; [apply occ_child_plain; eassumption|exact Ho]. }
  destruct e; cbn [get_args] in Hin; cbn [children] in UP; try (exact (UP p Hin Hocc)); try (destruct Hin; fail).
  - destruct n; cbn [In] in Hin; try tauto. destruct Hin as [<-|[]]. destruct (occurs_num_inv _ _ _ Hocc).
  - destruct (get_args_add_in _ _ _ Hin) as [->|(k & v & Hk & ->)].
    + destruct (occurs_num_inv _ _ _ Hocc).
    + apply occurs_add_term_arg in Hocc.
      eapply UP; [eapply in_keys|]; eassumption.
  - destruct (get_args_mul_in _ _ _ Hin) as [->|(k & v & Hk & ->)].
    + destruct (occurs_num_inv _ _ _ Hocc).
    + apply occurs_mul_term_arg in Hocc.
      destruct Hocc; (eapply UP; [|eassumption]); [eapply in_flat_l|eapply in_flat_r]; eassumption.
  - discriminate.
  - destruct Hin as [<-|[<-|[<-|[<-|[]]]]]; try (destruct (occurs_bool_inv _ _ _ Hocc)); (eapply UP; [|exact Hocc]); cbn [In]; auto.
Qed.
