(* C39 -- HasSymbolVisitor / has_symbol: it answers true exactly when some node reachable
   through get_args is eq to the argument; for a Symbol argument this is "the symbol occurs
   anywhere" (bound positions included), hence it agrees with free_symbols on trees without
   Subs nodes and disagrees on a bound variable of a Subs. *)
From SE Require Export C39.FsSpec.
From SE Require Import Expr.Unfold.
From Coq Require Import Lia.
Local Open Scope N_scope.

Definition hs_step (f : nat) (x : expr) (acc : option bool) (p : expr) : option bool :=
  match acc with Some false => hs_trav f x p | _ => acc end.

Lemma hs_trav_S : forall f x b, hs_trav (S f) x b =
  if hs_hit x b then Some true else fold_left (hs_step f x) (get_args b) (Some false).
Proof. reflexivity. Qed.

Definition hits (x b : expr) : Prop := exists t, subarg t b /\ hs_hit x t = true.

Lemma hs_trav_spec : forall x f b, (weight b <= f)%nat ->
  exists r, hs_trav f x b = Some r /\ (r = true <-> hits x b).
Proof.
  intros x. induction f as [|f IH]; intros b Hw; [pose proof (weight_pos b); lia|].
  rewrite hs_trav_S. destruct (hs_hit x b) eqn:E.
  - exists true. split; [reflexivity|]. split; [|reflexivity]. intros _. exists b. split; [apply SA_refl|exact E].
  - assert (FOLD : forall l a, (forall p, In p l -> (weight p <= f)%nat) ->
              exists r, fold_left (hs_step f x) l (Some a) = Some r /\
                        (r = true <-> a = true \/ exists p, In p l /\ hits x p)).
    { induction l as [|p l IHl]; intros a Hl; cbn [fold_left].
      - exists a. split; [reflexivity|]. split; [auto|]. intros [H|(p & [] & _)]. exact H.
      - destruct a; cbn [hs_step].
        + destruct (IHl true (fun q Hq => Hl q (or_intror Hq))) as (r & Hr & Hiff).
          exists r. split; [exact Hr|]. rewrite Hiff. split; auto.
        + destruct (IH p (Hl p (or_introl eq_refl))) as (rp & Hrp & Hp). rewrite Hrp.
          destruct (IHl rp (fun q Hq => Hl q (or_intror Hq))) as (r & Hr & Hiff).
          exists r. split; [exact Hr|]. rewrite Hiff. split.
          * intros [H|(q & Hq & Hh)]; right; [exists p; split; [left; reflexivity|apply Hp; exact H]|exists q; split; [right; exact Hq|exact Hh]].
          * intros [H|(q & [<-|Hq] & Hh)]; [discriminate|left; apply Hp; exact Hh|right; exists q; auto]. }
    destruct (FOLD (get_args b) false) as (r & Hr & Hiff).
    + intros p Hp. apply weight_args in Hp. lia.
    + exists r. split; [exact Hr|]. rewrite Hiff. split.
      * intros [H|(p & Hp & t & Ht & Hh)]; [discriminate|]. exists t. split; [eapply SA_step; eauto|exact Hh].
      * intros (t & Ht & Hh). right. inversion Ht; subst; [congruence|]. exists p. split; [assumption|]. exists t. auto.
Qed.

Theorem has_symbol_spec : forall b x,
  exists r, has_symbol b x = Some r /\ (r = true <-> hits x b).
Proof. intros. apply hs_trav_spec. apply le_n. Qed.

Lemma hs_hit_sym : forall x t, is_sym x = true -> (hs_hit x t = true <-> t = x).
Proof.
  intros x t Hx. split.
  - unfold hs_hit. destruct t; try discriminate; intros H; apply (sym_eqb_l x _ Hx H).
  - intros ->. unfold hs_hit. destruct x; try discriminate; apply sym_eqb_refl; reflexivity.
Qed.

Lemma subarg_occurs_any : forall x b, is_sym x = true -> subarg x b -> occurs_any x b.
Proof.
  intros x b Hx H. induction H.
  - apply O_self. exact Hx.
  - specialize (IHsubarg Hx). destruct (is_subs e) eqn:E.
    + destruct e; try discriminate. cbn [get_args] in H. destruct H as [<-|H].
      * apply O_subs_arg; [exact IHsubarg|discriminate].
      * apply in_app_or in H. destruct H as [H|H]; apply in_map_iff in H; destruct H as ([k v] & <- & Hin).
        -- eapply O_subs_var; eauto.
        -- eapply O_subs_point; eauto.
    + eapply occ_arg_up; eauto.
Qed.

Lemma occn_any_subarg : forall n x b, tree_ok b = true -> occn B_none x n b -> subarg x b.
Proof.
  induction n as [n IH] using lt_wf_ind. intros x b Hok H.
  destruct n as [|m]; [destruct H|].
  destruct (is_subs b) eqn:E.
  - destruct b; try discriminate. apply occn_S in H. destruct H as [[_ ->]|(c & Hc & H)]; [apply SA_refl|].
    rewrite Nat.sub_0_r in H. eapply SA_step; [|apply (IH m (Nat.lt_succ_diag_r m) x c); [|exact H]].
    + apply occ_child_in in Hc. cbn [children get_args] in *. destruct Hc as [<-|Hc]; [left; reflexivity|right].
      apply in_flat_map in Hc. destruct Hc as ([k v] & Hin & [<-|[<-|[]]]); apply in_or_app; [left|right];
        apply in_map_iff; exists (k, v); auto.
    + eapply tree_ok_child; [exact Hok|]. eapply occ_child_in; exact Hc.
  - destruct (occn_arg_down B_none x m b eq_refl Hok E H) as [[_ ->]|(t & Ht & Hoc)]; [apply SA_refl|].
    eapply SA_step; [exact Ht|]. apply (IH m (Nat.lt_succ_diag_r m)); [eapply tree_ok_args; eauto|exact Hoc].
Qed.

Theorem has_symbol_occurs_any : forall b x, tree_ok b = true -> is_sym x = true ->
  (has_symbol b x = Some true <-> occurs_any x b).
Proof.
  intros b x Hok Hx. destruct (has_symbol_spec b x) as (r & Hr & Hiff). rewrite Hr. split.
  - intros H. inversion H; subst. destruct (proj1 Hiff eq_refl) as (t & Ht & Hh).
    apply (hs_hit_sym x t Hx) in Hh. subst. apply subarg_occurs_any; assumption.
  - intros H. apply occurs_occn in H. destruct H as [n H]. f_equal. apply Hiff.
    exists x. split; [eapply occn_any_subarg; eauto|apply (hs_hit_sym x x Hx); reflexivity].
Qed.

Lemma occurs_any_code : forall s e, guard_subs e = false -> occurs B_none s e -> occurs B_code s e.
Proof.
  intros s e. apply (occurs_mode B_none B_code (fun x => any_node is_subs x = false)).
  - intros x c. apply no_node_child.
  - intros x Hx. apply any_node_false in Hx. split; [reflexivity|]. rewrite (proj1 Hx). discriminate.
Qed.
Lemma occurs_code_any : forall s e, occurs B_code s e -> occurs B_none s e.
Proof.
  intros s e. apply (occurs_mode B_code B_none (fun _ => True)); [auto| |exact I].
  intros x _. split; [reflexivity|discriminate].
Qed.

Theorem has_symbol_agrees_guarded : forall e s, tree_ok e = true -> guard_subs e = false ->
  is_sym s = true -> (has_symbol e s = Some true <-> In s (free_symbols e)).
Proof.
  intros e s Hok Hg Hs. rewrite (has_symbol_occurs_any e s Hok Hs).
  destruct (free_symbols_code_spec e Hok) as [_ H]. rewrite H. unfold occurs_any, occurs_code.
  split; [apply occurs_any_code; exact Hg|apply occurs_code_any].
Qed.

(* the defect: the bound variable of a Subs *)
Definition sym_z : expr := ESym [122].
Definition wit_subs : expr :=                (* Subs(Derivative(f(x, y), x), {x: z}) *)
  ESubs (EDeriv (EFunSym [102] [sym_x; sym_y]) [sym_x]) [(sym_x, sym_z)].

Theorem has_symbol_agrees_refuted :
  exists e s, tree_ok e = true /\ is_sym s = true /\
    has_symbol e s = Some true /\ ~ In s (free_symbols e).
Proof.
  exists wit_subs, sym_x. split; [reflexivity|]. split; [reflexivity|]. split; [vm_compute; reflexivity|].
  vm_compute. intros [H|[H|[]]]; discriminate.
Qed.
