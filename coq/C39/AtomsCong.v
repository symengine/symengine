(* C39 -- the library's eq is a congruence for the Mul / Pow nodes that Add::get_args and
   Mul::get_args build from eq parts, and for the class selection of atoms<...> (kind_match);
   AtomsArgs.v puts the get_args of eq trees in correspondence with it.  Side condition: num_ok (no
   Rational with denominator 1, so that is_one agrees on eq numbers). *)
From SE Require Export C39.Atoms.
From SE Require Import Expr.Unfold.
From Coq Require Import Lia.
Local Open Scope N_scope.

Lemma num_eqb_int : forall v1 v2 c, Cmp.num_eqb v1 v2 = true ->
  Cmp.num_eqb v1 (NInt c) = Cmp.num_eqb v2 (NInt c).
Proof.
  intros v1 v2 c H. destruct v1; destruct v2; cbn [Cmp.num_eqb] in *; try discriminate; try reflexivity.
  apply Z.eqb_eq in H. subst. reflexivity.
Qed.
Lemma dbl_eq_zero : forall a b, dbl_eq a b = true -> dbl_eq a 0 = dbl_eq b 0.
Proof.
  intros a b H. unfold dbl_eq in *. apply andb_true_iff in H. destruct H as [H H3].
  apply andb_true_iff in H. destruct H as [H1 H2]. rewrite H1, H2. apply Z.eqb_eq in H3. rewrite H3. reflexivity.
Qed.
Lemma nis_zero_cong : forall v1 v2, Cmp.num_eqb v1 v2 = true -> nis_zero v1 = nis_zero v2.
Proof.
  intros v1 v2 H. destruct v1; destruct v2; cbn [Cmp.num_eqb nis_zero] in *; try discriminate; try reflexivity.
  - apply Z.eqb_eq in H. subst. reflexivity.
  - unfold Qeq_pair in H. apply Z.eqb_eq in H.
    destruct (n =? 0)%Z eqn:E1; destruct (n0 =? 0)%Z eqn:E2; try reflexivity; lia.
  - apply dbl_eq_zero. exact H.
  - apply andb_true_iff in H. destruct H as [H1 H2]. rewrite (dbl_eq_zero _ _ H1), (dbl_eq_zero _ _ H2). reflexivity.
Qed.
Lemma nis_one_cong : forall v1 v2, Cmp.num_eqb v1 v2 = true -> num_ok v1 = true -> num_ok v2 = true ->
  nis_one v1 = nis_one v2.
Proof.
  intros v1 v2 H O1 O2. destruct v1; destruct v2; cbn [Cmp.num_eqb nis_one num_ok] in *; try discriminate; try reflexivity.
  - apply Z.eqb_eq in H. subst. reflexivity.
  - apply negb_true_iff in O1. apply negb_true_iff in O2. rewrite O1, O2, !andb_false_r. reflexivity.
Qed.

Lemma eqb_num_l : forall n y, expr_eqb (ENum n) y = true -> exists n', y = ENum n' /\ Cmp.num_eqb n n' = true.
Proof. intros n y. rewrite expr_eqb_unfold. destruct y; cbn [eqb_body]; try discriminate. eauto. Qed.
Lemma eqb_num_r : forall n y, expr_eqb y (ENum n) = true -> exists n', y = ENum n' /\ Cmp.num_eqb n' n = true.
Proof. intros n y. rewrite expr_eqb_unfold. destruct y; cbn [eqb_body]; try discriminate. eauto. Qed.
Lemma is_int_one_cong : forall x1 x2, expr_eqb x1 x2 = true -> is_int_one x1 = is_int_one x2.
Proof.
  intros x1 x2 H. destruct (is_int_one x1) eqn:E1.
  - destruct x1; try discriminate. destruct n; try discriminate. cbn [is_int_one] in E1.
    apply eqb_num_l in H. destruct H as (n' & -> & Hn). destruct n'; cbn [Cmp.num_eqb] in Hn; try discriminate.
    apply Z.eqb_eq in Hn. subst. cbn [is_int_one]. symmetry. exact E1.
  - destruct (is_int_one x2) eqn:E2; [|reflexivity].
    destruct x2; try discriminate. destruct n; try discriminate. cbn [is_int_one] in E2.
    apply eqb_num_r in H. destruct H as (n' & -> & Hn). destruct n'; cbn [Cmp.num_eqb] in Hn; try discriminate.
    apply Z.eqb_eq in Hn. subst. cbn [is_int_one] in E1. congruence.
Qed.

Lemma eqb_pow : forall b1 x1 b2 x2, expr_eqb (EPow b1 x1) (EPow b2 x2) = expr_eqb b1 b2 && expr_eqb x1 x2.
Proof. intros. rewrite expr_eqb_unfold. reflexivity. Qed.
Lemma eqb_mul : forall c1 d1 c2 d2,
  expr_eqb (EMul c1 d1) (EMul c2 d2) = Cmp.num_eqb c1 c2 && pairs_eqb expr_eqb d1 d2.
Proof. intros. rewrite expr_eqb_unfold. cbn [eqb_body]. rewrite <- pairs_eqb_flat. reflexivity. Qed.
Lemma eqb_E1 : expr_eqb E1 E1 = true.
Proof. unfold E1. rewrite eqb_nums. reflexivity. Qed.

Lemma mul_from_dict_cong : forall v1 v2 dk1 dk2, Cmp.num_eqb v1 v2 = true ->
  num_ok v1 = true -> num_ok v2 = true -> pairs_eqb expr_eqb dk1 dk2 = true ->
  expr_eqb (mul_from_dict v1 dk1) (mul_from_dict v2 dk2) = true.
Proof.
  intros v1 v2 dk1 dk2 Hv O1 O2 Hd.
  (* positionwise equal dictionaries have the same length: both empty, both single, or both longer *)
  destruct dk1 as [|[k1 x1] [|p1 r1]]; destruct dk2 as [|[k2 x2] [|p2 r2]]; cbn [pairs_eqb] in Hd; try discriminate;
    try (destruct p1; discriminate); try (destruct p2; discriminate);
    try (rewrite andb_false_r in Hd; discriminate);
    try (destruct p1; rewrite andb_false_r in Hd; discriminate); try (destruct p2; rewrite andb_false_r in Hd; discriminate).
  - unfold mul_from_dict. rewrite <- (nis_zero_cong _ _ Hv). destruct (nis_zero v1); rewrite eqb_nums; exact Hv.
  - rewrite !mul_from_dict_single. rewrite <- (nis_zero_cong _ _ Hv), <- (nis_one_cong _ _ Hv O1 O2).
    apply andb_true_iff in Hd. destruct Hd as [Hd _]. apply andb_true_iff in Hd. destruct Hd as [Hk Hx].
    rewrite <- (is_int_one_cong _ _ Hx).
    destruct (nis_zero v1); [rewrite eqb_nums; exact Hv|].
    destruct (nis_one v1).
    + destruct (is_int_one x1); [exact Hk|]. rewrite eqb_pow, Hk, Hx. reflexivity.
    + rewrite eqb_mul, Hv. cbn [pairs_eqb]. rewrite Hk, Hx. reflexivity.
  - unfold mul_from_dict. rewrite <- (nis_zero_cong _ _ Hv). destruct (nis_zero v1); [rewrite eqb_nums; exact Hv|].
    cbv iota. rewrite eqb_mul, Hv. cbn [pairs_eqb andb]. exact Hd.
Qed.

Lemma as_mul_cong : forall k1 k2 v1 v2, expr_eqb k1 k2 = true -> Cmp.num_eqb v1 v2 = true ->
  num_ok v1 = true -> num_ok v2 = true -> expr_eqb (as_mul k1 v1) (as_mul k2 v2) = true.
Proof.
  intros k1 k2 v1 v2 Hk Hv O1 O2.
  assert (D : expr_eqb (EMul v1 [(k1, E1)]) (EMul v2 [(k2, E1)]) = true).
  { rewrite eqb_mul, Hv. cbn [pairs_eqb]. rewrite Hk, eqb_E1. reflexivity. }
  pose proof Hk as Hk'. rewrite expr_eqb_unfold in Hk'.
  destruct k1; destruct k2; cbn [eqb_body] in Hk'; try discriminate; cbn [as_mul]; try exact D.
  - apply andb_true_iff in Hk'. destruct Hk' as [_ Hd]. rewrite <- pairs_eqb_flat in Hd.
    apply mul_from_dict_cong; assumption.
  - apply andb_true_iff in Hk'. destruct Hk' as [Hb Hx].
    rewrite eqb_mul, Hv. cbn [pairs_eqb]. rewrite Hb, Hx. reflexivity.
Qed.

Lemma add_term_arg_cong : forall k1 k2 v1 v2, expr_eqb k1 k2 = true -> Cmp.num_eqb v1 v2 = true ->
  num_ok v1 = true -> num_ok v2 = true ->
  expr_eqb (add_term_arg (k1, v1)) (add_term_arg (k2, v2)) = true.
Proof.
  intros k1 k2 v1 v2 Hk Hv O1 O2. rewrite !add_term_arg_closed.
  rewrite <- (num_eqb_int _ _ 1 Hv), <- (num_eqb_int _ _ 0 Hv).
  destruct (Cmp.num_eqb v1 (NInt 1)); [exact Hk|].
  destruct (Cmp.num_eqb v1 (NInt 0)); [rewrite eqb_nums; exact Hv|].
  apply as_mul_cong; assumption.
Qed.
Lemma mul_term_arg_cong : forall k1 k2 x1 x2, expr_eqb k1 k2 = true -> expr_eqb x1 x2 = true ->
  expr_eqb (mul_term_arg (k1, x1)) (mul_term_arg (k2, x2)) = true.
Proof.
  intros k1 k2 x1 x2 Hk Hx. unfold mul_term_arg. cbn [fst snd]. rewrite <- (is_int_one_cong _ _ Hx).
  destruct (is_int_one x1); [exact Hk|]. rewrite eqb_pow, Hk, Hx. reflexivity.
Qed.

Lemma kind_match_cong : forall k x y, expr_eqb x y = true -> kind_match k x = kind_match k y.
Proof.
  intros k x y H. rewrite expr_eqb_unfold in H.
  (* eq trees have the same constructor and, where the class depends on it, the same type code (the
     first test of eqb_body); kind_match looks at nothing else, but for KInteger at the kind of number *)
  destruct x; destruct y; cbn [eqb_body] in H; try discriminate;
    try (destruct k; reflexivity);
    try (apply andb_true_iff in H; destruct H as [H _]; try (apply andb_true_iff in H; destruct H as [H _]);
         apply N.eqb_eq in H; subst; destruct k; reflexivity).
  - (* numbers *)
    destruct n; destruct n0; cbn [Cmp.num_eqb] in H; try discriminate; destruct k; reflexivity.
  - apply N.eqb_eq in H. subst. destruct k; reflexivity.
Qed.
Lemma sel_match_cong : forall ks x y, expr_eqb x y = true -> sel_match ks x = sel_match ks y.
Proof.
  intros ks x y H. unfold sel_match. induction ks as [|k ks IH]; [reflexivity|].
  cbn [existsb]. rewrite (kind_match_cong k x y H), IH. reflexivity.
Qed.
