(* C39 -- basic lemmas: eq / RCPBasicKeyLess on symbols, the set containers, the nodes that
   Add::get_args / Mul::get_args build, the fuel measure, and [args_closed]: which predicates of
   a node are inherited by its get_args (tree_ok, nums_ok, the guards, well-formedness). *)
From SE Require Export C39.OccProofs.
From SE Require Import Expr.Unfold.
From Coq Require Import Lia.
Local Open Scope N_scope.

Lemma sym_eqb_l : forall s b, is_sym s = true -> expr_eqb s b = true -> b = s.
Proof.
  intros s b Hs. rewrite expr_eqb_unfold.
  destruct s; try discriminate; destruct b; cbn [eqb_body]; try discriminate; intros H.
  - apply bytes_eqb_eq in H. subst. reflexivity.
  - apply andb_true_iff in H. destruct H as [H1 H2]. apply bytes_eqb_eq in H1. apply N.eqb_eq in H2.
    subst. reflexivity.
Qed.
Lemma sym_eqb_r : forall s b, is_sym s = true -> expr_eqb b s = true -> b = s.
Proof.
  intros s b Hs H. assert (Hb : is_sym b = true).
  { rewrite expr_eqb_unfold in H. destruct s; try discriminate; destruct b; try discriminate; reflexivity. }
  symmetry. exact (sym_eqb_l b s Hb H).
Qed.
Lemma sym_eqb_refl : forall s, is_sym s = true -> expr_eqb s s = true.
Proof.
  intros s Hs. rewrite expr_eqb_unfold. destruct s; try discriminate; cbn [eqb_body].
  - apply bytes_eqb_refl.
  - rewrite bytes_eqb_refl, N.eqb_refl. reflexivity.
Qed.

Lemma eqb_nums : forall a b, expr_eqb (ENum a) (ENum b) = Cmp.num_eqb a b.
Proof. intros. rewrite expr_eqb_unfold. reflexivity. Qed.

(* compare on two symbols: "neither is less" means equal *)
Lemma bytes_cmp_le_eq : forall a b, bytes_cmp a b <> (-1)%Z -> bytes_cmp b a <> (-1)%Z -> a = b.
Proof.
  intros a b H1 H2. pose proof (bytes_cmp_range a b) as R. pose proof (bytes_cmp_antisym a b) as A.
  unfold in_range in R. apply bytes_cmp_eq. lia.
Qed.
Lemma sym_cmp_eq : forall a b, is_sym a = true -> is_sym b = true ->
  expr_cmp a b <> (-1)%Z -> expr_cmp b a <> (-1)%Z -> a = b.
Proof.
  intros a b Ha Hb. rewrite !expr_cmp_unfold. unfold cmp_body.
  destruct a; try discriminate; destruct b; try discriminate; cbn [type_code cmp_same].
  - rewrite N.eqb_refl. cbn [negb]. intros H1 H2. rewrite (bytes_cmp_le_eq _ _ H1 H2). reflexivity.
  - intros H1 H2. exfalso. apply H1. reflexivity.
  - intros H1 H2. exfalso. apply H2. reflexivity.
  - rewrite N.eqb_refl. cbn [negb]. intros H1 H2.
    destruct (bytes_eqb name name0) eqn:E.
    + apply bytes_eqb_eq in E. subst. rewrite bytes_eqb_refl in H2.
      unfold Ncmp in *. pose proof (Zcmp_range (Z.of_N idx) (Z.of_N idx0)) as R.
      pose proof (Zcmp_antisym (Z.of_N idx) (Z.of_N idx0)) as A. unfold in_range in R.
      assert (Zcmp (Z.of_N idx) (Z.of_N idx0) = 0%Z) by lia.
      apply -> Zcmp_eq in H. apply N2Z.inj in H. subst. reflexivity.
    + assert (E' : bytes_eqb name0 name = false).
      { destruct (bytes_eqb name0 name) eqn:E2; [|reflexivity]. apply bytes_eqb_eq in E2. subst.
        rewrite bytes_eqb_refl in E. discriminate. }
      rewrite E' in H2. rewrite (bytes_cmp_le_eq _ _ H1 H2), bytes_eqb_refl in E. discriminate.
Qed.

(* equivalent keys: same cached hash, and in neither order is one tree less than the other
   (eq, or compare does not answer -1) *)
Lemma set_equiv_iff : forall a b, set_equiv a b = true <->
  fst a = fst b /\
  (expr_eqb (snd a) (snd b) = true \/ expr_cmp (snd a) (snd b) <> (-1)%Z) /\
  (expr_eqb (snd b) (snd a) = true \/ expr_cmp (snd b) (snd a) <> (-1)%Z).
Proof.
  intros [ha a] [hb b]. unfold set_equiv, keyless_h. cbn [fst snd]. rewrite andb_true_iff, !negb_true_iff.
  assert (K : forall x y, (if expr_eqb x y then false else (expr_cmp x y =? -1)%Z) = false <->
                          expr_eqb x y = true \/ expr_cmp x y <> (-1)%Z).
  { intros x y. destruct (expr_eqb x y); [split; auto|]. rewrite Z.eqb_neq.
    split; [auto|intros [H|H]; [discriminate|exact H]]. }
  destruct (ha =? hb) eqn:E.
  - apply N.eqb_eq in E. subst hb. rewrite N.eqb_refl. cbn [negb]. rewrite !K. split; [intros [H1 H2]|intros (_ & H1 & H2)]; auto.
  - rewrite (N.eqb_sym hb ha), E. cbn [negb]. apply N.eqb_neq in E.
    split; [intros [H1 H2]|intros [H _]; contradiction].
    apply N.ltb_ge in H1. apply N.ltb_ge in H2. destruct (E (N.le_antisymm _ _ H2 H1)).
Qed.

Lemma set_equiv_sym : forall a b, is_sym (snd a) = true -> is_sym (snd b) = true ->
  set_equiv a b = true -> snd a = snd b.
Proof.
  intros a b Ha Hb H. apply set_equiv_iff in H. destruct H as (_ & [E1|C1] & H2).
  - symmetry. exact (sym_eqb_l _ _ Ha E1).
  - destruct H2 as [E2|C2]; [symmetry; exact (sym_eqb_r _ _ Ha E2)|apply sym_cmp_eq; assumption].
Qed.
Lemma set_equiv_same_sym : forall h a, is_sym a = true -> set_equiv (h, a) (h, a) = true.
Proof. intros h a Ha. apply set_equiv_iff. cbn [fst snd]. rewrite (sym_eqb_refl a Ha). auto. Qed.

Lemma set_insert_in : forall k m x, In x (set_insert k m) -> x = k \/ In x m.
Proof.
  intros k m. induction m as [|k' r IH]; cbn [set_insert]; intros x H.
  - destruct H as [H|[]]; auto.
  - destruct (keyless_h k' k).
    + destruct H as [H|H]; [right; left; exact H|]. apply IH in H. destruct H; [left|right; right]; auto.
    + destruct (keyless_h k k'); [destruct H as [H|H]; [left; auto|right; exact H]|right; exact H].
Qed.
Lemma set_insert_keep : forall k m x, In x m -> In x (set_insert k m).
Proof.
  intros k m. induction m as [|k' r IH]; cbn [set_insert]; intros x H; [destruct H|].
  destruct (keyless_h k' k).
  - destruct H as [H|H]; [left; exact H|right; apply IH; exact H].
  - destruct (keyless_h k k'); [right; exact H|exact H].
Qed.
(* the inserted key is present afterwards, up to the comparator's equivalence *)
Lemma set_insert_new : forall k m, In k (set_insert k m) \/ exists k', In k' m /\ set_equiv k' k = true.
Proof.
  intros k m. induction m as [|k' r IH]; cbn [set_insert]; [left; left; reflexivity|].
  destruct (keyless_h k' k) eqn:E1.
  - destruct IH as [IH|(k2 & Hin & He)]; [left; right; exact IH|right; exists k2; split; [right; exact Hin|exact He]].
  - destruct (keyless_h k k') eqn:E2; [left; left; reflexivity|].
    right. exists k'. split; [left; reflexivity|]. unfold set_equiv. rewrite E1, E2. reflexivity.
Qed.
Lemma set_insert_new_sym : forall k m, is_sym (snd k) = true ->
  (forall y, In y m -> is_sym (snd y) = true) -> In (snd k) (map snd (set_insert k m)).
Proof.
  intros k m Hk Hm. destruct (set_insert_new k m) as [H|(k' & Hin & He)].
  - apply in_map. exact H.
  - apply set_equiv_sym in He; auto. rewrite <- He. apply in_map. apply set_insert_keep. exact Hin.
Qed.

Lemma set_insert_all_in : forall xs m x, In x (set_insert_all xs m) -> In x xs \/ In x m.
Proof.
  induction xs as [|a xs IH]; cbn [set_insert_all fold_left]; intros m x H; [right; exact H|].
  apply IH in H. destruct H as [H|H]; [left; right; exact H|].
  apply set_insert_in in H. destruct H as [->|H]; [left; left; reflexivity|right; exact H].
Qed.
Lemma set_insert_all_keep : forall xs m x, In x m -> In x (set_insert_all xs m).
Proof.
  induction xs as [|a xs IH]; cbn [set_insert_all fold_left]; intros m x H; [exact H|].
  apply IH. apply set_insert_keep. exact H.
Qed.
Lemma set_insert_all_new_sym : forall xs m, (forall y, In y xs -> is_sym (snd y) = true) ->
  (forall y, In y m -> is_sym (snd y) = true) ->
  forall x, In x xs -> In (snd x) (map snd (set_insert_all xs m)).
Proof.
  induction xs as [|a xs IH]; cbn [set_insert_all fold_left]; intros m Hxs Hm x Hx; [destruct Hx|].
  assert (Hm' : forall y, In y (set_insert a m) -> is_sym (snd y) = true).
  { intros y Hy. apply set_insert_in in Hy. destruct Hy as [->|Hy]; [apply Hxs; left; reflexivity|apply Hm; exact Hy]. }
  destruct Hx as [->|Hx].
  - pose proof (set_insert_new_sym x m (Hxs x (or_introl eq_refl)) Hm) as H.
    apply in_map_iff in H. destruct H as (y & Hy1 & Hy2). rewrite <- Hy1.
    apply in_map. apply (set_insert_all_keep xs). exact Hy2.
  - apply IH; auto. intros y Hy. apply Hxs. right. exact Hy.
Qed.

Lemma set_erase_in : forall k m x, In x (set_erase k m) <-> In x m /\ set_equiv k x = false.
Proof.
  intros. unfold set_erase. rewrite filter_In. rewrite negb_true_iff. reflexivity.
Qed.
Lemma set_erase_all_in : forall ks m x,
  In x (fold_left (fun m p => set_erase (mk_hx p) m) ks m) <->
  In x m /\ forall p, In p ks -> set_equiv (mk_hx p) x = false.
Proof.
  induction ks as [|a ks IH]; cbn [fold_left]; intros m x.
  - split; [intros H; split; [exact H|intros p []]|intros [H _]; exact H].
  - rewrite IH, set_erase_in. split.
    + intros [[H1 H2] H3]. split; [exact H1|]. intros p [<-|Hp]; auto.
    + intros [H1 H2]. split; [split; [exact H1|apply H2; left; reflexivity]|]. intros p Hp. apply H2. right. exact Hp.
Qed.

Lemma weight_pos : forall e, (1 <= weight e)%nat.
Proof. destruct e; cbn [weight]; try lia. destruct n; lia. Qed.
Lemma weight_num : forall n, (weight (ENum n) <= 2)%nat.
Proof. destruct n; cbn [weight]; lia. Qed.

(* an element's share of the sums in [weight] *)
Lemma in_fold_sum : forall {A} (g : A -> nat) x l, In x l -> (g x <= fold_right (fun p acc => g p + acc) 0 l)%nat.
Proof. induction l; cbn [In fold_right]; [tauto|]. intros [->|H]; [lia|]. apply IHl in H. lia. Qed.

(* the nodes that Add::get_args / Mul::get_args build, in closed form *)
Lemma mul_from_dict_nil : forall v, mul_from_dict v [] = ENum v.
Proof. intros. unfold mul_from_dict. destruct (nis_zero v); reflexivity. Qed.
Lemma mul_from_dict_single : forall v k x,
  mul_from_dict v [(k, x)] =
  if nis_zero v then ENum v
  else if nis_one v then (if is_int_one x then k else EPow k x) else EMul v [(k, x)].
Proof.
  intros. unfold mul_from_dict. destruct (nis_zero v); [reflexivity|].
  destruct x; try reflexivity. destruct n; reflexivity.
Qed.
Lemma mul_from_dict_many : forall v p q r,
  mul_from_dict v (p :: q :: r) = if nis_zero v then ENum v else EMul v (p :: q :: r).
Proof. intros v [k x] q r. reflexivity. Qed.

Definition as_mul (k : expr) (v : number) : expr :=
  match k with
  | EMul _ dk => mul_from_dict v dk
  | EPow b x => EMul v [(b, x)]
  | _ => EMul v [(k, E1)]
  end.
Lemma add_single_closed : forall k v,
  add_single k v =
  if Cmp.num_eqb v (NInt 0) then ENum v else if Cmp.num_eqb v (NInt 1) then k else as_mul k v.
Proof. intros. unfold add_single, as_mul. destruct v; reflexivity. Qed.
Lemma add_term_arg_closed : forall k v,
  add_term_arg (k, v) =
  if Cmp.num_eqb v (NInt 1) then k
  else if Cmp.num_eqb v (NInt 0) then ENum v else as_mul k v.
Proof.
  intros. unfold add_term_arg, add_from_dict. cbn [fst snd nis_zero Z.eqb]. rewrite add_single_closed.
  destruct (Cmp.num_eqb v (NInt 1)); [reflexivity|]. destruct (Cmp.num_eqb v (NInt 0)); reflexivity.
Qed.

(* Add::get_args / Mul::get_args: the coefficient (unless it is the neutral one), then one term per
   dictionary entry *)
Lemma get_args_add_in : forall c d a, In a (get_args (EAdd c d)) ->
  a = ENum c \/ exists k v, In (k, v) d /\ a = add_term_arg (k, v).
Proof.
  intros c d a H. cbn [get_args] in H. apply in_app_or in H. destruct H as [H|H].
  - left. destruct (nis_zero c); [destruct H|]. destruct H as [<-|[]]. reflexivity.
  - right. apply in_map_iff in H. destruct H as ([k v] & <- & Hin). exists k, v. auto.
Qed.
Lemma get_args_mul_in : forall c d a, In a (get_args (EMul c d)) ->
  a = ENum c \/ exists k x, In (k, x) d /\ a = mul_term_arg (k, x).
Proof.
  intros c d a H. cbn [get_args] in H. apply in_app_or in H. destruct H as [H|H].
  - left. destruct (nis_one c); [destruct H|]. destruct H as [<-|[]]. reflexivity.
  - right. apply in_map_iff in H. destruct H as ([k x] & <- & Hin). exists k, x. auto.
Qed.

Lemma weight_mul_from_dict : forall v dk c, (weight (mul_from_dict v dk) <= weight (EMul c dk))%nat.
Proof.
  intros v dk c. pose proof (weight_num v). destruct dk as [|[k x] [|p r]].
  - rewrite mul_from_dict_nil. cbn [weight fold_right] in *. lia.
  - rewrite mul_from_dict_single. pose proof (weight_pos k). pose proof (weight_pos x).
    destruct (nis_zero v), (nis_one v), (is_int_one x); cbn [weight fold_right fst snd] in *; lia.
  - rewrite mul_from_dict_many. destruct (nis_zero v); cbn [weight] in *; lia.
Qed.
Lemma weight_as_mul : forall k v, (weight (as_mul k v) <= weight k + 5)%nat.
Proof.
  intros k v. pose proof (weight_num v).
  assert (D : (weight (EMul v [(k, E1)]) <= weight k + 5)%nat).
  { change (weight (EMul v [(k, E1)])) with (3 + (weight k + 1 + 1 + 0))%nat. lia. }
  destruct k; try exact D; cbn [as_mul].
  - pose proof (weight_mul_from_dict v d coef). lia.
  - cbn [weight fold_right fst snd]. lia.
Qed.
Lemma weight_add_term_arg : forall k v, (weight (add_term_arg (k, v)) <= weight k + 5)%nat.
Proof.
  intros k v. rewrite add_term_arg_closed. pose proof (weight_num v). pose proof (weight_as_mul k v).
  destruct (Cmp.num_eqb v (NInt 1)); [lia|]. destruct (Cmp.num_eqb v (NInt 0)); lia.
Qed.

Lemma weight_args : forall e p, In p (get_args e) -> (weight p < weight e)%nat.
Proof.
  intros e p. destruct e; cbn [get_args]; try (intros []; fail).
  - match goal with |- In _ (match ?n with _ => _ end) -> _ => destruct n end; cbn [In]; try tauto.
    intros [<-|[]]. cbn [weight]. lia.
  - (* Add *)
    intros H. destruct (get_args_add_in _ _ _ H) as [->|(k & v & Hin & ->)].
    + pose proof (weight_num coef). set (t := ENum coef) in *. cbn [weight]. lia.
    + apply (in_fold_sum (fun p : expr * number => weight (fst p) + 6)%nat) in Hin. cbn [fst snd] in Hin. pose proof (weight_add_term_arg k v). cbn [fst weight]. lia.
  - (* Mul *)
    intros H. destruct (get_args_mul_in _ _ _ H) as [->|(k & v & Hin & ->)].
    + pose proof (weight_num coef). set (t := ENum coef) in *. cbn [weight]. lia.
    + apply (in_fold_sum (fun p => weight (fst p) + weight (snd p) + 1)%nat) in Hin. cbn [fst snd] in Hin. unfold mul_term_arg. cbn [fst snd].
      destruct (is_int_one v); cbn [weight]; lia.
  - intros [<-|[<-|[]]]; cbn [weight]; lia.
  - intros [<-|[]]; cbn [weight]; lia.
  - intros [<-|[<-|[]]]; cbn [weight]; lia.
  - intros H. apply (in_fold_sum weight) in H. cbn [weight]. lia.
  - intros H. apply (in_fold_sum weight) in H. cbn [weight]. lia.
  - intros [<-|[<-|[]]]; cbn [weight]; lia.
  - intros [<-|H]; cbn [weight]; [lia|]. apply (in_fold_sum weight) in H. lia.
  - (* Subs *)
    intros [<-|H]; cbn [weight]; [lia|]. apply in_app_or in H.
    destruct H as [H|H]; apply in_map_iff in H; destruct H as ([k v] & <- & Hin);
      apply (in_fold_sum (fun p => weight (fst p) + weight (snd p))%nat) in Hin; cbn [fst snd] in Hin; cbn [fst snd]; pose proof (weight_pos k); pose proof (weight_pos v); lia.
  - (* Pw *)
    intros H. apply in_flat_map in H. destruct H as ([x c] & Hin & Hp). apply (in_fold_sum (fun p => weight (fst p) + weight (snd p))%nat) in Hin; cbn [fst snd] in Hin.
    cbn [fst snd In] in Hp. pose proof (weight_pos x); pose proof (weight_pos c).
    destruct Hp as [<-|[<-|[]]]; cbn [weight]; lia.
  - intros [<-|[<-|[<-|[<-|[]]]]]; cbn [weight]; lia.
Qed.

Lemma weight_subs_arg : forall a d, (weight a < weight (ESubs a d))%nat.
Proof. intros. cbn [weight]. lia. Qed.
Lemma weight_subs_point : forall a d v, In v (map snd d) -> (weight v < weight (ESubs a d))%nat.
Proof. intros a d v H. apply weight_args. cbn [get_args]. right. apply in_or_app. right. exact H. Qed.

(* The arguments of a node are its children, except that Add and Mul wrap theirs in new Mul / Pow
   nodes and that coefficients, the direction of an Infty and the flags of an Interval appear as
   number / boolean leaves.  So a predicate Q passes from a node to its get_args as soon as it
   passes to children, holds of those leaves, and holds of a Pow or Mul with good parts. *)
Section ArgsClosed.
  Variable Q : expr -> Prop.
  Variable Qn : number -> Prop.
  Hypothesis Q_num : forall n, Qn n -> Q (ENum n).
  Hypothesis Qn_int : forall z, Qn (NInt z).
  Hypothesis Q_bool : forall b, Q (EBool b).
  Hypothesis Q_child : forall e c, Q e -> In c (children e) -> Q c.
  Hypothesis Q_add_coef : forall c d, Q (EAdd c d) -> Qn c /\ forall k v, In (k, v) d -> Qn v.
  Hypothesis Q_mul_coef : forall c d, Q (EMul c d) -> Qn c.
  Hypothesis Q_pow : forall b x, Q b -> Q x -> Q (EPow b x).
  Hypothesis Q_mul : forall v d, Qn v -> (forall x, In x (flat d) -> Q x) -> Q (EMul v d).

  Lemma Q_mul1 : forall v k x, Qn v -> Q k -> Q x -> Q (EMul v [(k, x)]).
  Proof. intros v k x Hv Hk Hx. apply Q_mul; [exact Hv|]. intros y [<-|[<-|[]]]; assumption. Qed.

  Lemma Q_mul_from_dict : forall v c dk, Qn v -> Q (EMul c dk) -> Q (mul_from_dict v dk).
  Proof.
    intros v c dk Hv H. pose proof (fun x => Q_child _ x H) as Hd. cbn [children] in Hd.
    destruct dk as [|[k x] [|p r]].
    - rewrite mul_from_dict_nil. apply Q_num, Hv.
    - rewrite mul_from_dict_single.
      assert (Hk : Q k) by (apply Hd; left; reflexivity).
      assert (Hx : Q x) by (apply Hd; right; left; reflexivity).
      destruct (nis_zero v); [apply Q_num, Hv|].
      destruct (nis_one v); [destruct (is_int_one x); [exact Hk|apply Q_pow; assumption]|apply Q_mul1; assumption].
    - rewrite mul_from_dict_many. destruct (nis_zero v); [apply Q_num, Hv|apply Q_mul; assumption].
  Qed.

  Lemma Q_as_mul : forall k v, Qn v -> Q k -> Q (as_mul k v).
  Proof.
    intros k v Hv Hk.
    assert (D : Q (EMul v [(k, E1)])) by (apply Q_mul1; [exact Hv|exact Hk|apply Q_num, Qn_int]).
    destruct k; try exact D; cbn [as_mul].
    - eapply Q_mul_from_dict; eassumption.
    - apply Q_mul1; [exact Hv| |]; apply (Q_child _ _ Hk); cbn [children In]; auto.
  Qed.

  Lemma Q_add_term_arg : forall k v, Qn v -> Q k -> Q (add_term_arg (k, v)).
  Proof.
    intros k v Hv Hk. rewrite add_term_arg_closed. destruct (Cmp.num_eqb v (NInt 1)); [exact Hk|].
    destruct (Cmp.num_eqb v (NInt 0)); [apply Q_num, Hv|apply Q_as_mul; assumption].
  Qed.

  Theorem args_closed : forall e a, Q e -> In a (get_args e) -> Q a.
  Proof using Q_num Qn_int Q_bool Q_child Q_add_coef Q_mul_coef Q_pow Q_mul.
    intros e a He Hin. pose proof (fun x => Q_child _ x He) as RC.
    destruct e; cbn [get_args] in Hin; cbn [children] in RC; try (apply RC; exact Hin); try (destruct Hin; fail).
    - destruct n; cbn [In] in Hin; try tauto. destruct Hin as [<-|[]]. apply Q_num, Qn_int.
    - destruct (Q_add_coef _ _ He) as [Hc Hd]. destruct (get_args_add_in _ _ _ Hin) as [->|(k & v & Hk & ->)].
      + apply Q_num, Hc.
      + apply Q_add_term_arg; [eapply Hd; exact Hk|]. apply RC. apply in_map_iff. exists (k, v). auto.
    - destruct (get_args_mul_in _ _ _ Hin) as [->|(k & v & Hkv & ->)].
      + eapply Q_num, Q_mul_coef, He.
      + unfold mul_term_arg. cbn [fst snd].
        assert (Hk : Q k) by (apply RC; eapply in_flat_l; exact Hkv).
        destruct (is_int_one v); [exact Hk|]. apply Q_pow; [exact Hk|]. apply RC. eapply in_flat_r; exact Hkv.
    - destruct Hin as [<-|Hin]; [apply RC; left; reflexivity|]. apply RC. right.
      apply in_app_or in Hin. destruct Hin as [Hin|Hin]; apply in_map_iff in Hin; destruct Hin as ([k v] & <- & Hin);
        [eapply in_flat_l|eapply in_flat_r]; exact Hin.
    - destruct Hin as [<-|[<-|[<-|[<-|[]]]]]; try apply Q_bool; apply RC; cbn [In]; auto.
  Qed.
End ArgsClosed.

Lemma existsb_false_in : forall {A} (f : A -> bool) l a, existsb f l = false -> In a l -> f a = false.
Proof.
  intros A f l a H Hin. destruct (f a) eqn:E; [|reflexivity].
  assert (existsb f l = true) by (apply existsb_exists; exists a; auto). congruence.
Qed.
Lemma existsb_flat : forall (f : expr -> bool) l,
  existsb (fun q => f (fst q) || f (snd q)) l = existsb f (flat l).
Proof.
  induction l as [|[k v] l IH]; [reflexivity|]. unfold flat in *. cbn [existsb flat_map app fst snd].
  rewrite IH. rewrite orb_assoc. reflexivity.
Qed.
Lemma existsb_keys : forall (f : expr -> bool) (l : list (expr * number)),
  existsb (fun q => f (fst q)) l = existsb f (map fst l).
Proof. induction l as [|[k v] l IH]; [reflexivity|]. cbn [existsb map fst]. rewrite IH. reflexivity. Qed.

Lemma any_node_children : forall p e, any_node p e = p e || existsb (any_node p) (children e).
Proof.
  intros p e. destruct e; cbn [any_node children existsb]; rewrite ?orb_false_r; try reflexivity.
  - rewrite existsb_keys. reflexivity.
  - rewrite existsb_flat. reflexivity.
  - rewrite existsb_flat. reflexivity.
  - rewrite existsb_flat. reflexivity.
Qed.
Lemma any_node_false : forall p e, any_node p e = false <->
  p e = false /\ forall c, In c (children e) -> any_node p c = false.
Proof.
  intros p e. rewrite any_node_children, orb_false_iff. apply and_iff_compat_l. split.
  - intros H c Hc. eapply existsb_false_in; eassumption.
  - intros H. destruct (existsb (any_node p) (children e)) eqn:E; [|reflexivity].
    apply existsb_exists in E. destruct E as (c & Hc & Hb). rewrite (H c Hc) in Hb. discriminate.
Qed.
Lemma no_node_child : forall p e c, any_node p e = false -> In c (children e) -> any_node p c = false.
Proof. intros p e c H. apply any_node_false. exact H. Qed.

(* [any_node p e = false] is inherited by get_args when p is false on what get_args builds; [pn]
   is what p says of a number wherever p looks at one *)
Section AnyArgs.
  Variable p : expr -> bool.
  Variable pn : number -> bool.
  Hypothesis p_num : forall n, p (ENum n) = pn n.
  Hypothesis pn_int : forall z, pn (NInt z) = false.
  Hypothesis p_bool : forall b, p (EBool b) = false.
  Hypothesis p_add : forall c d, p (EAdd c d) = false -> pn c = false /\ forall k v, In (k, v) d -> pn v = false.
  Hypothesis p_mul : forall c d, p (EMul c d) = pn c.
  Hypothesis p_pow : forall b x, p (EPow b x) = false.

  Theorem any_args : forall e a, any_node p e = false -> In a (get_args e) -> any_node p a = false.
  Proof using p_num pn_int p_bool p_add p_mul p_pow.
    apply (args_closed (fun e => any_node p e = false) (fun n => pn n = false)).
    - intros n Hn. cbn [any_node]. rewrite p_num, Hn. reflexivity.
    - exact pn_int.
    - intros b. cbn [any_node]. rewrite p_bool. reflexivity.
    - apply no_node_child.
    - intros c d H. apply p_add. apply any_node_false in H. apply H.
    - intros c d H. apply any_node_false in H. rewrite <- (p_mul c d). apply H.
    - intros b x Hb Hx. apply any_node_false. split; [apply p_pow|]. intros c [<-|[<-|[]]]; assumption.
    - intros v d Hv Hd. apply any_node_false. split; [rewrite p_mul; exact Hv|exact Hd].
  Qed.
End AnyArgs.

Lemma tree_ok_node : forall e, tree_ok e = true -> bad_node e = false.
Proof. intros e H. apply negb_true_iff, any_node_false in H. apply H. Qed.
Lemma tree_ok_child : forall e c, tree_ok e = true -> In c (children e) -> tree_ok c = true.
Proof. intros e c H Hc. apply negb_true_iff. apply negb_true_iff in H. exact (no_node_child _ e c H Hc). Qed.
Lemma tree_ok_args : forall e p, tree_ok e = true -> In p (get_args e) -> tree_ok p = true.
Proof.
  intros e p H Hin. apply negb_true_iff in H. apply negb_true_iff. revert e p H Hin.
  apply (any_args bad_node (fun _ => false)); try reflexivity. intros c d _. split; reflexivity.
Qed.
