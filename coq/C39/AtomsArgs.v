(* C39 -- eq(p, q) puts the get_args of p and of q in correspondence (each argument of one has
   an eq partner among the arguments of the other).  Side conditions: tree_ok (Add keys with pairwise
   different hashes: the pigeonhole step of eqb_children) and nums_ok (for the built nodes,
   AtomsCong.v). *)
From SE Require Export C39.AtomsCong.
From SE Require Import Expr.Unfold.
Local Open Scope N_scope.

Definition eqs (a b : expr) : Prop := expr_eqb a b = true \/ expr_eqb b a = true.
Lemma eqs_sym : forall a b, eqs a b -> eqs b a.
Proof. intros a b [H|H]; [right|left]; exact H. Qed.

(* a map that respects eq componentwise carries eq dictionaries to positionwise eq lists *)
Lemma pairs_eqb_map : forall f : expr * expr -> expr,
  (forall k1 k2 v1 v2, expr_eqb k1 k2 = true -> expr_eqb v1 v2 = true -> expr_eqb (f (k1, v1)) (f (k2, v2)) = true) ->
  forall d1 d2, pairs_eqb expr_eqb d1 d2 = true -> list_eqb expr_eqb (map f d1) (map f d2) = true.
Proof.
  intros f Hf. induction d1 as [|[k1 v1] d1 IH]; destruct d2 as [|[k2 v2] d2]; cbn [pairs_eqb map list_eqb]; intros H;
    try discriminate; [reflexivity|].
  apply andb_true_iff in H. destruct H as [H12 H3]. apply andb_true_iff in H12. destruct H12 as [H1 H2].
  rewrite (Hf _ _ _ _ H1 H2). apply IH. exact H3.
Qed.

Lemma nums_ok_node : forall e, nums_ok e = true -> bad_num_node e = false.
Proof. intros e H. apply negb_true_iff, any_node_false in H. apply H. Qed.
Lemma nums_ok_add : forall c d, nums_ok (EAdd c d) = true ->
  num_ok c = true /\ (forall k v, In (k, v) d -> num_ok v = true).
Proof.
  intros c d H. apply nums_ok_node in H. cbn [bad_num_node] in H.
  apply orb_false_iff in H. destruct H as [Hc Hv]. apply negb_false_iff in Hc. split; [exact Hc|].
  intros k v Hin. apply negb_false_iff. apply (existsb_false_in _ _ _ Hv Hin).
Qed.
Lemma nums_ok_mul : forall c d, nums_ok (EMul c d) = true -> num_ok c = true.
Proof. intros c d H. apply nums_ok_node in H. apply negb_false_iff in H. exact H. Qed.

Lemma nums_ok_args : forall e p, nums_ok e = true -> In p (get_args e) -> nums_ok p = true.
Proof.
  intros e p H Hin. apply negb_true_iff in H. apply negb_true_iff. revert e p H Hin.
  apply (any_args bad_num_node (fun n => negb (num_ok n))); try reflexivity.
  intros c d H. cbn [bad_num_node] in H. apply orb_false_iff in H. destruct H as [Hc Hd].
  split; [exact Hc|]. intros k v Hin. apply (existsb_false_in _ _ _ Hd Hin).
Qed.

Lemma args_sim_eqb : forall p q, tree_ok p = true -> tree_ok q = true -> nums_ok p = true -> nums_ok q = true ->
  expr_eqb p q = true -> list_sim (get_args p) (get_args q).
Proof.
  intros p q Tp Tq Np Nq He. destruct (eqb_children p q Tp Tq He) as (_ & _ & HC). rewrite expr_eqb_unfold in He.
  (* where get_args are the children, this is eqb_children *)
  destruct p; destruct q; cbn [eqb_body] in He; try discriminate; cbn [get_args]; try apply list_sim_nil; try exact HC.
  - (* numbers *)
    destruct n; destruct n0; cbn [Cmp.num_eqb] in He; try discriminate; try apply list_sim_nil.
    apply Z.eqb_eq in He. subst. apply list_sim_cons; [|apply list_sim_nil]. rewrite eqb_nums. apply Z.eqb_refl.
  - (* Add *)
    apply andb_true_iff in He. destruct He as [Hc He].
    destruct (bad_add _ _ (tree_ok_node _ Tp)) as [N1 _]. destruct (bad_add _ _ (tree_ok_node _ Tq)) as [N2 _].
    destruct (nums_ok_add _ _ Np) as [Oc1 Od1]. destruct (nums_ok_add _ _ Nq) as [Oc2 Od2].
    apply list_sim_app.
    + rewrite <- (nis_zero_cong _ _ Hc). destruct (nis_zero coef); [apply list_sim_nil|].
      apply list_sim_cons; [|apply list_sim_nil]. rewrite eqb_nums. exact Hc.
    + apply (umap_eqb_sim add_term_arg _ _ He N1 N2). intros k1 v1 k2 v2 H1 H2 Hr Hv.
      apply add_term_arg_cong; [exact Hr|rewrite num_eqb_sym; exact Hv|apply (Od2 k2 v2 H2)|apply (Od1 k1 v1 H1)].
  - (* Mul *)
    apply andb_true_iff in He. destruct He as [Hc He]. rewrite <- pairs_eqb_flat in He.
    apply nums_ok_mul in Np. apply nums_ok_mul in Nq.
    apply list_sim_app.
    + rewrite <- (nis_one_cong _ _ Hc Np Nq). destruct (nis_one coef); [apply list_sim_nil|].
      apply list_sim_cons; [|apply list_sim_nil]. rewrite eqb_nums. exact Hc.
    + apply list_sim_eqb. exact (pairs_eqb_map mul_term_arg mul_term_arg_cong _ _ He).
  - (* Subs *)
    apply andb_true_iff in He. destruct He as [H1 He]. rewrite <- pairs_eqb_flat in He.
    apply list_sim_cons; [exact H1|]. apply list_sim_app; apply list_sim_eqb;
      [apply (pairs_eqb_map fst)|apply (pairs_eqb_map snd)]; auto.
  - (* Interval *)
    apply andb_true_iff in He. destruct He as [He H4]. apply andb_true_iff in He. destruct He as [He H3].
    apply andb_true_iff in He. destruct He as [H1 H2].
    apply list_sim_cons; [exact H3|]. apply list_sim_cons; [exact H4|].
    apply list_sim_cons; [rewrite expr_eqb_unfold; exact H1|].
    apply list_sim_cons; [rewrite expr_eqb_unfold; exact H2|apply list_sim_nil].
Qed.

Lemma args_sim : forall p q, tree_ok p = true -> tree_ok q = true -> nums_ok p = true -> nums_ok q = true ->
  eqs p q -> forall p', In p' (get_args p) -> exists q', In q' (get_args q) /\ eqs p' q'.
Proof.
  intros p q Tp Tq Np Nq [He|He] p' Hp'.
  - apply (proj1 (args_sim_eqb p q Tp Tq Np Nq He)). exact Hp'.
  - destruct (proj2 (args_sim_eqb q p Tq Tp Nq Np He) p' Hp') as (q' & Hq' & Hs). exists q'. split; [exact Hq'|apply eqs_sym; exact Hs].
Qed.
