(* C39 obligation: what FreeSymbolsVisitor computes on every tree with tree_ok (ImageSet /
   ConditionSet included): the traversal terminates within its fuel and reports exactly the symbols that occur
   outside the first argument of a Subs that binds them (memo set included in the model). *)
From SE Require Import C39.FsComplete.
Theorem C39_free_symbols_code_spec :
  forall e, tree_ok e = true ->
  vs_out (free_symbols_st e) = false /\
  forall s, In s (free_symbols e) <-> occurs_code s e.
Proof. exact free_symbols_code_spec. Qed.
Print Assumptions C39_free_symbols_code_spec.
