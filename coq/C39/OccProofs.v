(* C39 -- occurrences with an explicit cost index (used for the inductions of the visitor
   proofs), equivalence with the inductive specification [occurs].  Both are used through one
   level: [occ_child] (occn_S, occurs_child, occurs_inv); [occurs_mode] compares binder modes. *)
From SE Require Export C39.QuerySpec.
From SE Require Import Expr.Unfold.
From Coq Require Import Lia.
Local Open Scope N_scope.

(* occn B s n e: s occurs in e (mode B) along a path of cost at most n, where entering a key of
   an Add costs 3, a key or exponent of a Mul costs 2 and any other child costs 1.  (With these
   costs every get_args argument that contains the occurrence is strictly cheaper than the node,
   although Add and Mul wrap their arguments in new Mul / Pow nodes.) *)
Fixpoint occn (B : bmode) (s : expr) (n : nat) (e : expr) {struct n} : Prop :=
  match n with
  | O => False
  | S m =>
    (is_sym s = true /\ e = s) \/
    match e with
    | EAdd c d =>
        match m with
        | S (S m') => exists k v, In (k, v) d /\ occn B s m' k
        | _ => False
        end
    | EMul c d =>
        match m with
        | S m' => exists k v, In (k, v) d /\ (occn B s m' k \/ occn B s m' v)
        | _ => False
        end
    | EPow b x => occn B s m b \/ occn B s m x
    | EF1 _ a => occn B s m a
    | EF2 _ a b => occn B s m a \/ occn B s m b
    | EFN c l =>
        if set_binder_node B c l then
          match l with
          | [sym; body; base] => (occn B s m body /\ s <> sym) \/ occn B s m base
          | [sym; cond] => occn B s m cond /\ s <> sym
          | _ => False
          end
        else exists a, In a l /\ occn B s m a
    | EFunSym _ l => exists a, In a l /\ occn B s m a
    | ELex _ a b => occn B s m a \/ occn B s m b
    | EDeriv a xs => occn B s m a \/ exists x, In x xs /\ occn B s m x
    | ESubs a d =>
        (occn B s m a /\ (b_subs B = true -> ~ In s (map fst d)))
        \/ (b_subs B = false /\ exists k v, In (k, v) d /\ occn B s m k)
        \/ (exists k v, In (k, v) d /\ occn B s m v)
    | EPw l => exists x c, In (x, c) l /\ (occn B s m x \/ occn B s m c)
    | EInterval a b _ _ => occn B s m a \/ occn B s m b
    | _ => False
    end
  end.

(* One level of an occurrence: [occ_child B s e c] says that c is a child of e through which an
   occurrence of s may pass in mode B (the children, minus what the binders honoured by B cut
   off); passing costs [occ_cost e] extra units. *)
Definition occ_cost (e : expr) : nat := match e with EAdd _ _ => 2 | EMul _ _ => 1 | _ => 0 end.
Definition occ_child (B : bmode) (s e c : expr) : Prop :=
  match e with
  | EFN code l =>
      if set_binder_node B code l then
        match l with
        | [sym; body; base] => (c = body /\ s <> sym) \/ c = base
        | [sym; cond] => c = cond /\ s <> sym
        | _ => False
        end
      else In c l
  | ESubs a d =>
      (c = a /\ (b_subs B = true -> ~ In s (map fst d)))
      \/ (b_subs B = false /\ exists v, In (c, v) d) \/ exists k, In (k, c) d
  | _ => In c (children e)
  end.

Lemma in_flat_l : forall (k v : expr) d, In (k, v) d -> In k (flat d).
Proof. intros. unfold flat. apply in_flat_map. exists (k, v). split; [assumption|left; reflexivity]. Qed.
Lemma in_flat_r : forall (k v : expr) d, In (k, v) d -> In v (flat d).
Proof. intros. unfold flat. apply in_flat_map. exists (k, v). split; [assumption|right; left; reflexivity]. Qed.

Lemma in_keys : forall (k : expr) (v : number) d, In (k, v) d -> In k (map fst d).
Proof. intros. apply in_map_iff. exists (k, v). auto. Qed.

Section ExIn.
  Variable P : expr -> Prop.
  Lemma ex_in_nil : (exists c, In c [] /\ P c) <-> False.
  Proof. split; [intros (c & [] & _)|intros []]. Qed.
  Lemma ex_in_1 : forall a, (exists c, In c [a] /\ P c) <-> P a.
  Proof. intros a. split; [intros (c & [<-|[]] & H); exact H|intros H; exists a; cbn [In]; auto]. Qed.
  Lemma ex_in_2 : forall a b, (exists c, In c [a; b] /\ P c) <-> P a \/ P b.
  Proof.
    intros a b. split; [intros (c & [<-|[<-|[]]] & H); auto|intros [H|H]; [exists a|exists b]; cbn [In]; auto].
  Qed.
  Lemma ex_in_cons : forall a l, (exists c, In c (a :: l) /\ P c) <-> P a \/ exists c, In c l /\ P c.
  Proof.
    intros a l. split.
    - intros (c & [<-|Hc] & H); [left; exact H|right; exists c; auto].
    - intros [H|(c & Hc & H)]; [exists a|exists c]; cbn [In]; auto.
  Qed.
  Lemma ex_in_fst : forall (d : list (expr * number)),
    (exists c, In c (map fst d) /\ P c) <-> exists k v, In (k, v) d /\ P k.
  Proof.
    intros d. split.
    - intros (c & Hc & H). apply in_map_iff in Hc. destruct Hc as ([k v] & <- & Hin). exists k, v. auto.
    - intros (k & v & Hin & H). exists k. split; [apply in_map_iff; exists (k, v); auto|exact H].
  Qed.
  Lemma ex_in_flat : forall d, (exists c, In c (flat d) /\ P c) <-> exists k v, In (k, v) d /\ (P k \/ P v).
  Proof.
    intros d. split.
    - intros (c & Hc & H). apply in_flat_map in Hc. destruct Hc as ([k v] & Hin & Hc). exists k, v.
      split; [exact Hin|]. destruct Hc as [<-|[<-|[]]]; auto.
    - intros (k & v & Hin & [H|H]); [exists k|exists v]; (split; [|exact H]); apply in_flat_map; exists (k, v);
        cbn [fst snd In]; auto.
  Qed.
End ExIn.

(* [m - occ_cost e] truncates at 0, where occn is False: this is the Fixpoint's test that m is
   large enough to enter an Add or a Mul *)
Lemma occn_S : forall B s m e, occn B s (S m) e <->
  (is_sym s = true /\ e = s) \/ exists c, occ_child B s e c /\ occn B s (m - occ_cost e) c.
Proof.
  intros B s m e. cbn [occn]. apply or_iff_compat_l.
  (* where occ_child is "a child", the Fixpoint names the children one by one and the right-hand
     side says "some c in children e": the ex_in lemmas relate the two for each shape of list *)
  destruct e; cbn [occ_child occ_cost children]; rewrite ?Nat.sub_0_r; symmetry;
    try apply ex_in_nil; try apply (ex_in_1 (occn B s m)); try apply (ex_in_2 (occn B s m));
    try apply (ex_in_flat (occn B s m)); try apply (ex_in_cons (occn B s m)); try reflexivity.
  - (* Add *)
    destruct m as [|[|m']]; cbn [Nat.sub]; rewrite ?Nat.sub_0_r; [| |apply ex_in_fst];
      (split; [intros (c & _ & [])|intros []]).
  - (* Mul *)
    destruct m as [|m']; cbn [Nat.sub]; rewrite ?Nat.sub_0_r; [|apply ex_in_flat].
    split; [intros (c & _ & [])|intros []].
  - (* ImageSet / ConditionSet *)
    destruct (set_binder_node B code args); [|reflexivity].
    destruct args as [|a1 [|a2 [|a3 [|a4 r]]]]; try (split; [intros (c & H & _)|intros H]; exact (False_ind _ H)).
    + split; [intros (c & [-> H2] & H1); auto|intros [H1 H2]; exists a2; auto].
    + split; [intros (c & [[-> H2]| ->] & H1); auto|intros [[H1 H2]|H]; [exists a2|exists a3]; auto].
  - (* Subs *)
    split.
    + intros (c & [[-> H2]|[[Hb (v & Hin)]|(k & Hin)]] & H); eauto 8.
    + intros [[H1 H2]|[[Hb (k & v & Hin & H)]|(k & v & Hin & H)]]; [exists e|exists k|exists v]; eauto 6.
Qed.

Lemma occn_child : forall B s n e c, occ_child B s e c -> occn B s n c -> occn B s (S (n + occ_cost e)) e.
Proof.
  intros B s n e c Hc H. apply occn_S. right. exists c. split; [exact Hc|].
  replace (n + occ_cost e - occ_cost e)%nat with n by lia. exact H.
Qed.

Lemma occn_mono : forall B s n n' e, (n <= n')%nat -> occn B s n e -> occn B s n' e.
Proof.
  intros B s n. induction n as [n IH] using lt_wf_ind. intros n' e Hle H.
  destruct n as [|m]; [destruct H|]. destruct n' as [|m']; [lia|].
  apply occn_S in H. apply occn_S. destruct H as [H|(c & Hc & H)]; [left; exact H|right].
  exists c. split; [exact Hc|]. eapply (IH (m - occ_cost e)%nat); [| |exact H]; lia.
Qed.

Lemma set_binder_node_3 : forall B c a1 a2 a3,
  set_binder_node B c [a1; a2; a3] = true -> b_sets B = true /\ c = TC_ImageSet.
Proof.
  unfold set_binder_node. intros B c a1 a2 a3 H. cbn [length Nat.eqb] in H.
  apply andb_true_iff in H. destruct H as [H1 H2]. split; [exact H1|].
  rewrite andb_true_r, andb_false_r, orb_false_r in H2. apply N.eqb_eq in H2. exact H2.
Qed.
Lemma set_binder_node_2 : forall B c a1 a2,
  set_binder_node B c [a1; a2] = true -> b_sets B = true /\ c = TC_ConditionSet.
Proof.
  unfold set_binder_node. intros B c a1 a2 H. cbn [length Nat.eqb] in H.
  apply andb_true_iff in H. destruct H as [H1 H2]. split; [exact H1|].
  rewrite andb_true_r, andb_false_r, orb_false_l in H2. apply N.eqb_eq in H2. exact H2.
Qed.
Lemma set_binder_node_imageset : forall B a1 a2 a3, b_sets B = true ->
  set_binder_node B TC_ImageSet [a1; a2; a3] = true.
Proof. intros. unfold set_binder_node. rewrite H. reflexivity. Qed.
Lemma set_binder_node_condset : forall B a1 a2, b_sets B = true ->
  set_binder_node B TC_ConditionSet [a1; a2] = true.
Proof. intros. unfold set_binder_node. rewrite H. reflexivity. Qed.

Lemma occ_child_in : forall B s e c, occ_child B s e c -> In c (children e).
Proof.
  intros B s e c H. destruct e; cbn [occ_child children] in *; try exact H.
  - destruct (set_binder_node B code args); [|exact H].
    destruct args as [|a1 [|a2 [|a3 [|a4 r]]]]; try (destruct H; fail); cbn [In].
    + destruct H as [-> _]. auto.
    + destruct H as [[-> _]| ->]; auto.
  - destruct H as [[-> _]|[[_ (v & H)]|(k & H)]]; [left; reflexivity|right; eapply in_flat_l; exact H|right; eapply in_flat_r; exact H].
Qed.

Lemma occurs_child : forall B s e c, occ_child B s e c -> occurs B s c -> occurs B s e.
Proof.
  intros B s e c H Hc. destruct e; cbn [occ_child children] in H; try (destruct H; fail).
  - apply in_map_iff in H. destruct H as ([k v] & <- & Hin). eapply O_add; eauto.
  - apply in_flat_map in H. destruct H as ([k v] & Hin & [<-|[<-|[]]]); [eapply O_mul_key|eapply O_mul_exp]; eauto.
  - destruct H as [<-|[<-|[]]]; [apply O_pow_base|apply O_pow_exp]; exact Hc.
  - destruct H as [<-|[]]. apply O_f1. exact Hc.
  - destruct H as [<-|[<-|[]]]; [apply O_f2_l|apply O_f2_r]; exact Hc.
  - destruct (set_binder_node B code args) eqn:Hb; [|eapply O_fn; eauto].
    destruct args as [|a1 [|a2 [|a3 [|a4 r]]]]; try (destruct H; fail).
    + apply set_binder_node_2 in Hb. destruct Hb as [Hb ->]. destruct H as [-> H]. apply O_condset; auto.
    + apply set_binder_node_3 in Hb. destruct Hb as [Hb ->].
      destruct H as [[-> H]| ->]; [apply O_imageset_expr|apply O_imageset_base]; auto.
  - eapply O_funsym; eauto.
  - destruct H as [<-|[<-|[]]]; [apply O_lex_l|apply O_lex_r]; exact Hc.
  - destruct H as [<-|H]; [apply O_deriv_arg|eapply O_deriv_var]; eauto.
  - destruct H as [[-> H]|[[Hb (v & H)]|(k & H)]]; [apply O_subs_arg|eapply O_subs_var|eapply O_subs_point]; eauto.
  - apply in_flat_map in H. destruct H as ([x cd] & Hin & [<-|[<-|[]]]); [eapply O_pw_expr|eapply O_pw_cond]; eauto.
  - destruct H as [<-|[<-|[]]]; [apply O_interval_l|apply O_interval_r]; exact Hc.
Qed.

Lemma occn_occurs : forall B s n e, occn B s n e -> occurs B s e.
Proof.
  intros B s n. induction n as [n IH] using lt_wf_ind. intros e H. destruct n as [|m]; [destruct H|].
  apply occn_S in H. destruct H as [[Hs ->]|(c & Hc & H)]; [apply O_self; exact Hs|].
  eapply occurs_child; [exact Hc|]. eapply (IH (m - occ_cost e)%nat); [lia|exact H].
Qed.

Lemma occurs_occn : forall B s e, occurs B s e -> exists n, occn B s n e.
Proof.
  (* every constructor of occurs but O_self passes through one occ_child of its node, and
     occn_child adds that level to the cost of the premise *)
  intros B s e H. induction H; [exists 1%nat; left; auto|..];
    destruct IHoccurs as [n IH]; eexists; (eapply occn_child; [|exact IH]); cbn [occ_child children In];
    rewrite ?set_binder_node_imageset, ?set_binder_node_condset by assumption;
    eauto 6 using in_flat_l, in_flat_r, in_keys.
  (* O_fn: the node is no binder in mode B, and the premise is an argument *)
  rewrite H. exact H0.
Qed.

Theorem occurs_iff_occn : forall B s e, occurs B s e <-> exists n, occn B s n e.
Proof. intros. split; [apply occurs_occn|intros [n H]; eapply occn_occurs; eauto]. Qed.

Lemma occurs_inv : forall B s e, occurs B s e ->
  (is_sym s = true /\ e = s) \/ exists c, occ_child B s e c /\ occurs B s c.
Proof.
  intros B s e H. apply occurs_occn in H. destruct H as [[|m] H]; [destruct H|].
  apply occn_S in H. destruct H as [H|(c & Hc & H)]; [left; exact H|right].
  exists c. split; [exact Hc|eapply occn_occurs; exact H].
Qed.

(* at the node e, what mode B lets through mode B' lets through as well *)
Definition mode_le (B B' : bmode) (e : expr) : Prop :=
  (is_set_binder e = true -> b_sets B = b_sets B') /\
  (is_subs e = true -> b_subs B' = true -> b_subs B = true).

Lemma occ_child_mode : forall B B' s e c, mode_le B B' e -> occ_child B s e c -> occ_child B' s e c.
Proof.
  intros B B' s e c [Hsets Hsubs] H. destruct e; try exact H; cbn [occ_child] in *.
  - assert (E : set_binder_node B code args = set_binder_node B' code args).
    { unfold set_binder_node. cbn [is_set_binder] in Hsets.
      destruct (code =? TC_ImageSet) eqn:E1; [rewrite (Hsets eq_refl); reflexivity|].
      destruct (code =? TC_ConditionSet) eqn:E2; [rewrite (Hsets eq_refl); reflexivity|].
      cbn [andb orb]. rewrite !andb_false_r. reflexivity. }
    rewrite <- E. exact H.
  - destruct H as [[-> H]|[[Hb H]|H]].
    + left. split; [reflexivity|]. intros Hb'. apply H. apply Hsubs; [reflexivity|exact Hb'].
    + right. left. split; [|exact H]. destruct (b_subs B') eqn:E; [|reflexivity].
      rewrite (Hsubs eq_refl eq_refl) in Hb. discriminate.
    + right. right. exact H.
Qed.

(* G: a class of trees closed under children on whose nodes the two modes compare *)
Theorem occurs_mode : forall B B' (G : expr -> Prop),
  (forall e c, G e -> In c (children e) -> G c) -> (forall e, G e -> mode_le B B' e) ->
  forall s e, G e -> occurs B s e -> occurs B' s e.
Proof.
  intros B B' G Gc Gm s e HG H. apply occurs_occn in H. destruct H as [n H]. revert e HG H.
  induction n as [n IH] using lt_wf_ind. intros e HG H. destruct n as [|m]; [destruct H|].
  apply occn_S in H. destruct H as [[Hs ->]|(c & Hc & H)]; [apply O_self; exact Hs|].
  eapply occurs_child; [eapply occ_child_mode; [apply Gm; exact HG|exact Hc]|].
  eapply (IH (m - occ_cost e)%nat); [lia| |exact H]. eapply Gc; [exact HG|]. eapply occ_child_in; exact Hc.
Qed.
