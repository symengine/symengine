(* C39 -- FreeSymbolsVisitor: unfolding, termination (the fuel [weight] is enough) and
   soundness: every reported symbol occurs (mode B_code) in the expression. *)
From SE Require Export C39.OccArgs.
From Coq Require Import Lia.
Local Open Scope N_scope.

Definition hx_ok (x : hx) : Prop := fst x = hash (snd x).
Lemma mk_hx_ok : forall e, hx_ok (mk_hx e).
Proof. reflexivity. Qed.
Lemma hx_ok_eq : forall x, hx_ok x -> x = mk_hx (snd x).
Proof. intros [h e] H. unfold hx_ok in H. cbn [fst snd] in H. subst. reflexivity. Qed.

(* the loop "for p in args: if v.insert(p).second then p->accept" of both visitors *)
Definition memo_step (visit : hx -> vstate -> vstate) (st : vstate) (p : expr) : vstate :=
  let hp := mk_hx p in
  if uset_mem hp (vs_v st) then st
  else visit hp (mkV (vs_s st) (hp :: vs_v st) (vs_out st)).
Definition memo_list (visit : hx -> vstate -> vstate) (l : list expr) (st : vstate) : vstate :=
  fold_left (memo_step visit) l st.

(* The loop composes what its steps do.  R l st st': what processing the list l may have done
   between st and st'; a step either finds its node in the memo set or pushes and visits it. *)
Section MemoRel.
  Variable visit : hx -> vstate -> vstate.
  Variable ok : expr -> Prop.
  Variable R : list expr -> vstate -> vstate -> Prop.
  Hypothesis R_nil : forall st, R [] st st.
  Hypothesis R_cons : forall p l a b c, R [p] a b -> R l b c -> R (p :: l) a c.
  Hypothesis R_skip : forall st p, ok p -> uset_mem (mk_hx p) (vs_v st) = true -> R [p] st st.
  Hypothesis R_visit : forall st p, ok p ->
    R [p] st (visit (mk_hx p) (mkV (vs_s st) (mk_hx p :: vs_v st) (vs_out st))).

  Lemma memo_list_rel : forall l st, (forall p, In p l -> ok p) -> R l st (memo_list visit l st).
  Proof using R_nil R_cons R_skip R_visit.
    induction l as [|p l IH]; intros st Hl; [apply R_nil|].
    change (memo_list visit (p :: l) st) with (memo_list visit l (memo_step visit st p)).
    apply R_cons with (memo_step visit st p); [|apply IH; intros q Hq; apply Hl; right; exact Hq].
    pose proof (Hl p (or_introl eq_refl)) as Hp. unfold memo_step.
    destruct (uset_mem (mk_hx p) (vs_v st)) eqn:E; [apply R_skip|apply R_visit]; assumption.
  Qed.
End MemoRel.

Definition fs_list (f : nat) := memo_list (fs_visit f).

Definition fs_subs_state (f : nat) (a : expr) (d : list (expr * expr)) (st : vstate) : vstate :=
  let inner := fs_visit f (mk_hx a) v_empty in
  let set_ := fold_left (fun m p => set_erase (mk_hx p) m) (map fst d) (vs_s inner) in
  mkV (set_insert_all set_ (vs_s st)) (vs_v st) (vs_out st || vs_out inner).

Lemma fs_visit_S : forall f he st,
  fs_visit (S f) he st =
  match snd he with
  | ESym _ | EDummy _ _ => mkV (set_insert he (vs_s st)) (vs_v st) (vs_out st)
  | ESubs a d => fs_list f (map snd d) (fs_subs_state f a d st)
  | e => fs_list f (get_args e) st
  end.
Proof. intros. cbn [fs_visit]. destruct (snd he); reflexivity. Qed.

(* the three rules of FreeSymbolsVisitor: a Symbol is inserted, a Subs is treated apart, any other
   node passes the visit on to its arguments *)
Lemma fs_visit_cases : forall (R : vstate -> Prop) f h e st,
  (is_sym e = true -> R (mkV (set_insert (h, e) (vs_s st)) (vs_v st) (vs_out st))) ->
  (is_sym e = false -> is_subs e = false -> R (fs_list f (get_args e) st)) ->
  (forall a d, e = ESubs a d -> R (fs_list f (map snd d) (fs_subs_state f a d st))) ->
  R (fs_visit (S f) (h, e) st).
Proof.
  intros R f h e st SYM GEN SUBS. rewrite fs_visit_S. cbn [snd].
  destruct e; try (apply GEN; reflexivity); try (apply SYM; reflexivity). apply (SUBS _ _ eq_refl).
Qed.

Definition all_sym_ok (l : list hx) : Prop :=
  forall x, In x l -> hx_ok x /\ is_sym (snd x) = true.

Definition sound_post (P : expr -> Prop) (st st' : vstate) : Prop :=
  vs_out st' = vs_out st /\
  (forall x, In x (vs_s st) -> In x (vs_s st')) /\
  (forall x, In x (vs_s st') -> In x (vs_s st) \/ (hx_ok x /\ is_sym (snd x) = true /\ P (snd x))).

Lemma sound_post_refl : forall P st, sound_post P st st.
Proof. intros. repeat split; auto. Qed.
Lemma sound_post_trans : forall (P Q R : expr -> Prop) st1 st2 st3,
  (forall x, P x -> R x) -> (forall x, Q x -> R x) ->
  sound_post P st1 st2 -> sound_post Q st2 st3 -> sound_post R st1 st3.
Proof.
  intros P Q R st1 st2 st3 HP HQ (A1 & A2 & A3) (B1 & B2 & B3). repeat split.
  - congruence.
  - auto.
  - intros x Hx. apply B3 in Hx. destruct Hx as [Hx|(H1 & H2 & H3)]; [|right; auto].
    apply A3 in Hx. destruct Hx as [Hx|(H1 & H2 & H3)]; [left; auto|right; auto].
Qed.

Lemma fs_sound_aux : forall f he st, (weight (snd he) <= f)%nat -> hx_ok he ->
  sound_post (fun s => occurs B_code s (snd he)) st (fs_visit f he st).
Proof.
  induction f as [|f IH]; intros he st Hw Hok; [pose proof (weight_pos (snd he)); lia|].
  (* the list loop, for any list of nodes whose occurrences are occurrences of the node *)
  assert (LIST : forall (l : list expr) st0,
            (forall p, In p l -> (weight p <= f)%nat) ->
            sound_post (fun s => exists p, In p l /\ occurs B_code s p) st0 (fs_list f l st0)).
  { intros l st0. apply (memo_list_rel (fs_visit f) (fun p => (weight p <= f)%nat)
                          (fun l => sound_post (fun s => exists p, In p l /\ occurs B_code s p))).
    - intros st1. apply sound_post_refl.
    - intros p l' a b c. apply sound_post_trans.
      + intros x (q & [<-|[]] & Hx). exists p. split; [left; reflexivity|exact Hx].
      + intros x (q & Hq & Hx). exists q. split; [right; exact Hq|exact Hx].
    - intros st1 p _ _. apply sound_post_refl.
    - intros st1 p Hw'.
      destruct (IH (mk_hx p) (mkV (vs_s st1) (mk_hx p :: vs_v st1) (vs_out st1)) Hw' (mk_hx_ok p)) as (G1 & G2 & G3).
      split; [exact G1|]. split; [exact G2|]. intros x Hx. destruct (G3 x Hx) as [Q|(Q1 & Q2 & Q3)]; [left; exact Q|right].
      split; [exact Q1|]. split; [exact Q2|]. exists p. split; [left; reflexivity|exact Q3]. }
  destruct he as [h e]. cbn [snd] in *. apply fs_visit_cases.
  - intros Hs. repeat split; cbn [vs_out vs_s]; auto.
    + intros x Hx. apply set_insert_keep. exact Hx.
    + intros x Hx. apply set_insert_in in Hx. destruct Hx as [->|Hx]; [right|left; exact Hx].
      cbn [snd]. split; [exact Hok|]. split; [exact Hs|]. apply O_self. exact Hs.
  - intros Hns Hnsub.
    eapply (sound_post_trans (fun s => exists p, In p (get_args e) /\ occurs B_code s p) (fun _ => False) _ st (fs_list f (get_args e) st)).
    + intros x (p & Hp & Hx). eapply occ_arg_up; eauto.
    + intros x [].
    + apply LIST. intros p Hp. apply weight_args in Hp. lia.
    + apply sound_post_refl.
  - intros e' d ->. rename e' into e.
    pose proof (IH (mk_hx e) v_empty) as INNER. cbn [snd mk_hx] in INNER.
    specialize (INNER ltac:(cbn [weight] in Hw; lia) (mk_hx_ok e)).
    destruct INNER as (I1 & I2 & I3).
    eapply (sound_post_trans (fun s => occurs B_code s e /\ ~ In s (map fst d))
                             (fun s => exists p, In p (map snd d) /\ occurs B_code s p) _ st (fs_subs_state f e d st)).
    + intros x [Hx1 Hx2]. apply O_subs_arg; [exact Hx1|intros _; exact Hx2].
    + intros x (p & Hp & Hx). apply in_map_iff in Hp. destruct Hp as ([k v] & <- & Hin).
      eapply O_subs_point; eauto.
    + unfold fs_subs_state. repeat split; cbn [vs_out vs_s vs_v].
      * rewrite I1. cbn [v_empty vs_out]. apply orb_false_r.
      * intros x Hx. apply set_insert_all_keep. exact Hx.
      * intros x Hx. apply set_insert_all_in in Hx. destruct Hx as [Hx|Hx]; [right|left; exact Hx].
        apply set_erase_all_in in Hx. destruct Hx as [Hx1 Hx2].
        apply I3 in Hx1. destruct Hx1 as [[]|(K1 & K2 & K3)].
        split; [exact K1|]. split; [exact K2|]. split; [exact K3|].
        intros Hin. specialize (Hx2 _ Hin).
        pose proof (hx_ok_eq x K1) as Ex.
        rewrite Ex in Hx2. unfold mk_hx in Hx2. rewrite set_equiv_same_sym in Hx2 by exact K2. discriminate.
    + apply LIST. intros p Hp. pose proof (weight_subs_point e d p Hp). lia.
Qed.

Theorem fs_terminates : forall e, vs_out (free_symbols_st e) = false.
Proof.
  intros e. unfold free_symbols_st.
  destruct (fs_sound_aux (weight e) (mk_hx e) v_empty (le_n _) (mk_hx_ok e)) as (H & _). exact H.
Qed.

Theorem fs_sound : forall e s, In s (free_symbols e) -> is_sym s = true /\ occurs_code s e.
Proof.
  intros e s H. unfold free_symbols in H. apply in_map_iff in H. destruct H as (x & <- & Hx).
  destruct (fs_sound_aux (weight e) (mk_hx e) v_empty (le_n _) (mk_hx_ok e)) as (_ & _ & H3).
  apply H3 in Hx. destruct Hx as [[]|(_ & K2 & K3)]. split; [exact K2|exact K3].
Qed.
