(* C39 -- the library's eq preserves occurrences: if eq(p, q) then a symbol occurs in p
   (mode without set binders, any cost bound) iff it occurs in q.  This is what makes the memo
   set of FreeSymbolsVisitor harmless.  The Add case needs the two dictionaries to be in
   bijection; it is obtained from "the keys of one dictionary have pairwise different hashes"
   (tree_ok) by the pigeonhole principle -- no symmetry/transitivity of eq is assumed. *)
From SE Require Export C39.FsSound.
From SE Require Import Expr.Unfold.
From Coq Require Import Lia.
Local Open Scope N_scope.

Lemma list_eqb_in_l : forall r l1 l2, list_eqb r l1 l2 = true ->
  forall a, In a l1 -> exists b, In b l2 /\ r a b = true.
Proof.
  induction l1 as [|x l1 IH]; destruct l2 as [|y l2]; cbn [list_eqb]; intros H a Ha; try discriminate; [destruct Ha|].
  apply andb_true_iff in H. destruct H as [H1 H2]. destruct Ha as [<-|Ha].
  - exists y. split; [left; reflexivity|exact H1].
  - destruct (IH l2 H2 a Ha) as (b & Hb & Hr). exists b. split; [right; exact Hb|exact Hr].
Qed.
Lemma pairs_eqb_in_l : forall r d1 d2, pairs_eqb r d1 d2 = true ->
  forall k v, In (k, v) d1 -> exists k' v', In (k', v') d2 /\ r k k' = true /\ r v v' = true.
Proof.
  induction d1 as [|[k1 v1] d1 IH]; destruct d2 as [|[k2 v2] d2]; cbn [pairs_eqb]; intros H k v Hin;
    try discriminate; [destruct Hin|].
  apply andb_true_iff in H. destruct H as [H12 H3]. apply andb_true_iff in H12. destruct H12 as [H1 H2].
  destruct Hin as [Hin|Hin].
  - inversion Hin; subst. exists k2, v2. split; [left; reflexivity|auto].
  - destruct (IH d2 H3 k v Hin) as (k' & v' & Hin' & Hr). exists k', v'. split; [right; exact Hin'|exact Hr].
Qed.
(* read from right to left, the positionwise comparisons are those of the converse relation *)
Lemma list_eqb_flip : forall r l1 l2, list_eqb r l1 l2 = list_eqb (fun a b => r b a) l2 l1.
Proof.
  induction l1 as [|x l1 IH]; destruct l2 as [|y l2]; cbn [list_eqb]; try reflexivity. rewrite IH. reflexivity.
Qed.
Lemma pairs_eqb_flip : forall r d1 d2, pairs_eqb r d1 d2 = pairs_eqb (fun a b => r b a) d2 d1.
Proof.
  induction d1 as [|[k1 v1] d1 IH]; destruct d2 as [|[k2 v2] d2]; cbn [pairs_eqb]; try reflexivity. rewrite IH. reflexivity.
Qed.
Lemma list_eqb_in_r : forall r l1 l2, list_eqb r l1 l2 = true ->
  forall b, In b l2 -> exists a, In a l1 /\ r a b = true.
Proof. intros r l1 l2 H. rewrite list_eqb_flip in H. exact (list_eqb_in_l _ _ _ H). Qed.
Lemma pairs_eqb_in_r : forall r d1 d2, pairs_eqb r d1 d2 = true ->
  forall k' v', In (k', v') d2 -> exists k v, In (k, v) d1 /\ r k k' = true /\ r v v' = true.
Proof. intros r d1 d2 H. rewrite pairs_eqb_flip in H. exact (pairs_eqb_in_l _ _ _ H). Qed.

(* Subs: with Symbol variables on one side, eq dictionaries have the same variables *)
Lemma pairs_eqb_keys : forall r d1 d2, pairs_eqb r d1 d2 = true ->
  (forall k v k', In (k, v) d1 -> r k k' = true -> k' = k) -> map fst d2 = map fst d1.
Proof.
  induction d1 as [|[k1 v1] d1 IH]; destruct d2 as [|[k2 v2] d2]; cbn [pairs_eqb]; intros H Hs;
    try discriminate; [reflexivity|].
  apply andb_true_iff in H. destruct H as [H12 H3]. apply andb_true_iff in H12. destruct H12 as [H1 H2].
  cbn [map fst]. f_equal.
  - apply (Hs k1 v1 k2); [left; reflexivity|exact H1].
  - apply IH; [exact H3|]. intros k v k' Hin. apply (Hs k v k'). right. exact Hin.
Qed.
Lemma pairs_eqb_keys_sym : forall d1 d2, pairs_eqb expr_eqb d1 d2 = true ->
  (forall k v, In (k, v) d1 -> is_sym k = true) -> map fst d2 = map fst d1.
Proof.
  intros d1 d2 H Hs. apply (pairs_eqb_keys _ _ _ H). intros k v k' Hin. apply sym_eqb_l. exact (Hs k v Hin).
Qed.
Lemma pairs_eqb_keys_sym_r : forall d1 d2, pairs_eqb expr_eqb d1 d2 = true ->
  (forall k v, In (k, v) d2 -> is_sym k = true) -> map fst d2 = map fst d1.
Proof.
  intros d1 d2 H Hs. rewrite pairs_eqb_flip in H. symmetry. apply (pairs_eqb_keys _ _ _ H).
  intros k v k' Hin. apply sym_eqb_r. exact (Hs k v Hin).
Qed.

Lemma umap_find_some : forall r k d v, umap_find r k d = Some v ->
  exists k', In (k', v) d /\ hash k' = hash k /\ r k' k = true.
Proof.
  induction d as [|[k' v'] d IH]; cbn [umap_find]; intros v H; [discriminate|].
  destruct ((hash k' =? hash k) && r k' k) eqn:E.
  - inversion H; subst. apply andb_true_iff in E. destruct E as [E1 E2]. apply N.eqb_eq in E1.
    exists k'. split; [left; reflexivity|auto].
  - destruct (IH v H) as (k2 & Hin & Hh). exists k2. split; [right; exact Hin|exact Hh].
Qed.
Lemma umap_eqb_fwd : forall r d1 d2, umap_eqb r d1 d2 = true ->
  forall k1 v1, In (k1, v1) d1 ->
  exists k2 v2, In (k2, v2) d2 /\ hash k2 = hash k1 /\ r k2 k1 = true /\ Cmp.num_eqb v1 v2 = true.
Proof.
  intros r d1 d2 H k1 v1 Hin. unfold umap_eqb in H. apply andb_true_iff in H. destruct H as [_ H].
  rewrite forallb_forall in H. specialize (H _ Hin). cbn [fst snd] in H.
  destruct (umap_find r k1 d2) as [v2|] eqn:E; [|discriminate].
  apply umap_find_some in E. destruct E as (k2 & Hin2 & Hh & Hr). exists k2, v2. auto.
Qed.

Lemma nodupN_NoDup : forall l, nodupN l = true -> NoDup l.
Proof.
  induction l as [|x l IH]; cbn [nodupN]; intros H; [constructor|].
  apply andb_true_iff in H. destruct H as [H1 H2]. constructor; [|apply IH; exact H2].
  intros Hin. apply negb_true_iff in H1.
  assert (existsb (N.eqb x) l = true) by (apply existsb_exists; exists x; split; [exact Hin|apply N.eqb_refl]).
  congruence.
Qed.
Lemma NoDup_map_inj : forall {A B} (f : A -> B) l a b, NoDup (map f l) -> In a l -> In b l -> f a = f b -> a = b.
Proof.
  induction l as [|x l IH]; intros a b Hnd Ha Hb Hf; [destruct Ha|].
  cbn [map] in Hnd. inversion Hnd as [|? ? Hnot Hnd']; subst.
  destruct Ha as [->|Ha]; destruct Hb as [->|Hb]; auto.
  - exfalso. apply Hnot. rewrite Hf. apply in_map. exact Hb.
  - exfalso. apply Hnot. rewrite <- Hf. apply in_map. exact Ha.
Qed.

(* the pigeonhole step: every key of d2 is the partner of a key of d1 *)
Lemma umap_eqb_bwd : forall r d1 d2, umap_eqb r d1 d2 = true ->
  NoDup (map (fun p => hash (fst p)) d1) -> NoDup (map (fun p => hash (fst p)) d2) ->
  forall k2 v2, In (k2, v2) d2 ->
  exists k1 v1, In (k1, v1) d1 /\ hash k2 = hash k1 /\ r k2 k1 = true /\ Cmp.num_eqb v1 v2 = true.
Proof.
  intros r d1 d2 H N1 N2 k2 v2 Hin2.
  pose proof (umap_eqb_fwd r d1 d2 H) as F.
  unfold umap_eqb in H. apply andb_true_iff in H. destruct H as [HL _]. apply Nat.eqb_eq in HL.
  set (h := fun p : expr * number => hash (fst p)) in *.
  assert (I12 : incl (map h d1) (map h d2)).
  { intros x Hx. apply in_map_iff in Hx. destruct Hx as ([k1 v1] & <- & Hin1).
    destruct (F k1 v1 Hin1) as (k' & v' & Hin' & Hh & _). apply in_map_iff. exists (k', v'). split; [exact Hh|exact Hin']. }
  assert (I21 : incl (map h d2) (map h d1)).
  { apply NoDup_length_incl; [exact N1| |exact I12]. rewrite !map_length. lia. }
  assert (Hx : In (h (k2, v2)) (map h d1)) by (apply I21; apply in_map; exact Hin2).
  apply in_map_iff in Hx. destruct Hx as ([k1 v1] & Hh1 & Hin1).
  destruct (F k1 v1 Hin1) as (k' & v' & Hin' & Hh' & Hr & Hv).
  assert (E : (k', v') = (k2, v2)).
  { apply (NoDup_map_inj h d2); auto. unfold h in *. cbn [fst] in *. congruence. }
  inversion E; subst. exists k1, v1. split; [exact Hin1|]. split; [unfold h in Hh1; cbn [fst] in Hh1; congruence|auto].
Qed.

Lemma bad_add : forall c d, bad_node (EAdd c d) = false ->
  NoDup (map (fun p => hash (fst p)) d) /\ (forall k v, In (k, v) d -> nis_zero v = false).
Proof.
  intros c d H. cbn [bad_node] in H. apply orb_false_iff in H. destruct H as [H1 H2].
  apply negb_false_iff in H2. split; [apply nodupN_NoDup; exact H2|].
  intros k v Hin. destruct (nis_zero v) eqn:E; [|reflexivity].
  assert (existsb (fun p : expr * number => nis_zero (snd p)) d = true) by (apply existsb_exists; exists (k, v); auto).
  congruence.
Qed.
Lemma bad_subs : forall a d, bad_node (ESubs a d) = false -> forall k v, In (k, v) d -> is_sym k = true.
Proof.
  intros a d H k v Hin. cbn [bad_node] in H. destruct (is_sym k) eqn:E; [reflexivity|].
  assert (existsb (fun p : expr * expr => negb (is_sym (fst p))) d = true).
  { apply existsb_exists. exists (k, v). split; [exact Hin|]. cbn [fst]. rewrite E. reflexivity. }
  congruence.
Qed.

(* each element of one list has a partner in the other that is eq to it, in some orientation *)
Definition list_sim (l1 l2 : list expr) : Prop :=
  (forall a, In a l1 -> exists b, In b l2 /\ (expr_eqb a b = true \/ expr_eqb b a = true)) /\
  (forall b, In b l2 -> exists a, In a l1 /\ (expr_eqb a b = true \/ expr_eqb b a = true)).
Lemma list_sim_nil : list_sim [] [].
Proof. split; intros x []. Qed.
Lemma list_sim_app : forall a1 a2 b1 b2, list_sim a1 a2 -> list_sim b1 b2 -> list_sim (a1 ++ b1) (a2 ++ b2).
Proof.
  intros a1 a2 b1 b2 [A1 A2] [B1 B2]. split; intros x Hx; apply in_app_or in Hx; destruct Hx as [Hx|Hx].
  - destruct (A1 x Hx) as (y & Hy & He). exists y. split; [apply in_or_app; left; exact Hy|exact He].
  - destruct (B1 x Hx) as (y & Hy & He). exists y. split; [apply in_or_app; right; exact Hy|exact He].
  - destruct (A2 x Hx) as (y & Hy & He). exists y. split; [apply in_or_app; left; exact Hy|exact He].
  - destruct (B2 x Hx) as (y & Hy & He). exists y. split; [apply in_or_app; right; exact Hy|exact He].
Qed.
Lemma list_sim_cons : forall x y l1 l2, expr_eqb x y = true -> list_sim l1 l2 -> list_sim (x :: l1) (y :: l2).
Proof.
  intros x y l1 l2 He Hl. apply (list_sim_app [x] [y] l1 l2); [|exact Hl].
  split; intros z [<-|[]]; eexists; (split; [left; reflexivity|left; exact He]).
Qed.
Lemma list_sim_eqb : forall l1 l2, list_eqb expr_eqb l1 l2 = true -> list_sim l1 l2.
Proof.
  intros l1 l2 H. split.
  - intros a Ha. destruct (list_eqb_in_l _ _ _ H a Ha) as (b & Hb & Hr). exists b. split; [exact Hb|left; exact Hr].
  - intros b Hb. destruct (list_eqb_in_r _ _ _ H b Hb) as (a & Ha & Hr). exists a. split; [exact Ha|left; exact Hr].
Qed.

(* eq Add dictionaries whose keys have pairwise different hashes: a map that respects eq of key and
   value carries them to lists in correspondence *)
Lemma umap_eqb_sim : forall (f : expr * number -> expr) d1 d2, umap_eqb expr_eqb d1 d2 = true ->
  NoDup (map (fun p => hash (fst p)) d1) -> NoDup (map (fun p => hash (fst p)) d2) ->
  (forall k1 v1 k2 v2, In (k1, v1) d1 -> In (k2, v2) d2 -> expr_eqb k2 k1 = true -> Cmp.num_eqb v1 v2 = true ->
     expr_eqb (f (k2, v2)) (f (k1, v1)) = true) ->
  list_sim (map f d1) (map f d2).
Proof.
  intros f d1 d2 He N1 N2 Hf. split; intros x Hx; apply in_map_iff in Hx; destruct Hx as ([k v] & <- & Hin).
  - destruct (umap_eqb_fwd _ _ _ He k v Hin) as (k2 & v2 & Hin2 & _ & Hr & Hv).
    exists (f (k2, v2)). split; [apply in_map; exact Hin2|right; eauto].
  - destruct (umap_eqb_bwd _ _ _ He N1 N2 k v Hin) as (k1 & v1 & Hin1 & _ & Hr & Hv).
    exists (f (k1, v1)). split; [apply in_map; exact Hin1|right; eauto].
Qed.

(* eq trees are of the same class; except for the unordered Add dictionaries, whose keys are
   matched through their pairwise different hashes, eq compares the children positionwise *)
Lemma eqb_children : forall p q, tree_ok p = true -> tree_ok q = true -> expr_eqb p q = true ->
  occ_cost p = occ_cost q /\ is_subs p = is_subs q /\ list_sim (children p) (children q).
Proof.
  intros p q Hp Hq He. rewrite expr_eqb_unfold in He.
  destruct p; destruct q; cbn [eqb_body] in He; try discriminate He;
    (split; [reflexivity|split; [reflexivity|]]); cbn [children]; try apply list_sim_nil;
    try (apply list_sim_eqb; cbn [list_eqb];
         repeat (apply andb_true_iff in He; destruct He as [He ?]); rewrite ?andb_true_r;
         repeat (apply andb_true_iff; split); assumption).
  apply andb_true_iff in He. destruct He as [_ He].
  destruct (bad_add _ _ (tree_ok_node _ Hp)) as [N1 _]. destruct (bad_add _ _ (tree_ok_node _ Hq)) as [N2 _].
  apply (umap_eqb_sim fst _ _ He N1 N2). intros k1 v1 k2 v2 _ _ Hr _. exact Hr.
Qed.

Theorem eqb_occn : forall B, b_sets B = false -> forall n p q s,
  tree_ok p = true -> tree_ok q = true -> expr_eqb p q = true ->
  (occn B s n p <-> occn B s n q).
Proof.
  intros B HB n. induction n as [n IHn] using lt_wf_ind. intros p q s Hp Hq He.
  destruct n as [|m]; [cbn [occn]; tauto|].
  assert (SYM : (is_sym s = true /\ p = s) <-> (is_sym s = true /\ q = s)).
  { split; intros [Hs ->]; (split; [exact Hs|]).
    - apply (sym_eqb_l s q Hs He).
    - apply (sym_eqb_r s p Hs He). }
  destruct (eqb_children p q Hp Hq He) as (Ec & Es & Hsim).
  rewrite !occn_S, SYM, <- Ec. apply or_iff_compat_l. set (j := (m - occ_cost p)%nat).
  assert (IH : forall a b, In a (children p) -> In b (children q) ->
                 expr_eqb a b = true \/ expr_eqb b a = true -> (occn B s j a <-> occn B s j b)).
  { assert (Ta : forall a, In a (children p) -> tree_ok a = true) by (intros a; apply tree_ok_child; exact Hp).
    assert (Tb : forall b, In b (children q) -> tree_ok b = true) by (intros b; apply tree_ok_child; exact Hq).
    intros a b Ha Hb [E|E]; [|symmetry]; apply IHn; auto; unfold j; lia. }
  destruct (is_subs p) eqn:Esub.
  - (* Subs: the variables are Symbols, hence the same on both sides *)
    destruct p as [| | | | | | | | | | | | |a d| | | |]; try discriminate. destruct q as [| | | | | | | | | | | | |a' d'| | | |]; try discriminate.
    rewrite expr_eqb_unfold in He. cbn [eqb_body] in He. apply andb_true_iff in He. destruct He as [Ha He].
    rewrite <- pairs_eqb_flat in He.
    pose proof (pairs_eqb_keys_sym _ _ He (bad_subs _ _ (tree_ok_node _ Hp))) as Hkeys.
    cbn [occ_child children] in *. split.
    + intros (c & [[-> Hc]|[[Hb (v & Hin)]|(k & Hin)]] & H).
      * exists a'. split; [left; rewrite Hkeys; auto|]. apply (IH a a'); auto using in_eq.
      * destruct (pairs_eqb_in_l _ _ _ He c v Hin) as (k' & v' & Hin' & Hr & _).
        exists k'. split; [eauto|]. apply (IH c k'); auto; right; eapply in_flat_l; eassumption.
      * destruct (pairs_eqb_in_l _ _ _ He k c Hin) as (k' & v' & Hin' & _ & Hr).
        exists v'. split; [eauto|]. apply (IH c v'); auto; right; eapply in_flat_r; eassumption.
    + intros (c & [[-> Hc]|[[Hb (v & Hin)]|(k & Hin)]] & H).
      * exists a. split; [left; rewrite <- Hkeys; auto|]. apply (IH a a'); auto using in_eq.
      * destruct (pairs_eqb_in_r _ _ _ He c v Hin) as (k' & v' & Hin' & Hr & _).
        exists k'. split; [eauto|]. apply (IH k' c); auto; right; eapply in_flat_l; eassumption.
      * destruct (pairs_eqb_in_r _ _ _ He k c Hin) as (k' & v' & Hin' & _ & Hr).
        exists v'. split; [eauto|]. apply (IH v' c); auto; right; eapply in_flat_r; eassumption.
  - (* every other class: an occurrence passes through any child *)
    destruct Hsim as [S1 S2]. split; intros (c & Hc & H); apply occ_child_in in Hc.
    + destruct (S1 c Hc) as (b & Hb & E). exists b. split; [apply occ_child_plain; congruence|]. apply (IH c b); assumption.
    + destruct (S2 c Hc) as (a & Ha & E). exists a. split; [apply occ_child_plain; congruence|]. apply (IH a c); assumption.
Qed.
