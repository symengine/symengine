(* C39 -- FreeSymbolsVisitor is complete: every symbol that occurs (mode B_code) is reported.
   The memo set v is handled by a closure invariant: at the end every member r of v is "done"
   (its own symbols are in s, each of the nodes it recurses into is covered by a member of v
   that is the same tree or eq to it), and then an induction on the cost of an occurrence walks
   from covered node to covered node, crossing eq by EqbTransfer.eqb_occn. *)
From SE Require Export C39.ArgsDown.
From Coq Require Import Lia.
Local Open Scope N_scope.

Lemma occurs_is_sym : forall B s e, occurs B s e -> is_sym s = true.
Proof. intros B s e H. induction H; auto. Qed.

(* p is represented in the memo set: by itself or by a member that [uset_mem] identifies with it *)
Definition covered_h (p : expr) (V : list hx) : Prop :=
  exists q, In q V /\ (snd q = p \/ (fst q = hash p /\ expr_eqb p (snd q) = true)).
Lemma covered_h_mono : forall p V V', (forall x, In x V -> In x V') -> covered_h p V -> covered_h p V'.
Proof. intros p V V' H (q & Hq & Hc). exists q. auto. Qed.
Lemma uset_mem_covered_h : forall p V, uset_mem (mk_hx p) V = true -> covered_h p V.
Proof.
  intros p V H. unfold uset_mem in H. apply existsb_exists in H. destruct H as (q & Hq & Hc).
  apply andb_true_iff in Hc. destruct Hc as [Hc1 Hc2]. apply N.eqb_eq in Hc1.
  exists q. split; [exact Hq|right; split; [exact Hc1|exact Hc2]].
Qed.

(* [dn V S r]: node r is done with respect to the memo set V and the result set S (monotone in
   both).  If a visit of p leaves p done and every new member of the memo set done, the loop over
   a list leaves every element covered and every new member done. *)
Section MemoLoop.
  Variable inv : vstate -> Prop.
  Variable dn : list hx -> list hx -> expr -> Prop.

  Definition visit_post (e : expr) (st st' : vstate) : Prop :=
    (forall x, In x (vs_s st) -> In x (vs_s st')) /\
    (forall x, In x (vs_v st) -> In x (vs_v st')) /\
    inv st' /\ dn (vs_v st') (vs_s st') e /\
    (forall r, In r (vs_v st') -> In r (vs_v st) \/ dn (vs_v st') (vs_s st') (snd r)).
  Definition loop_post (l : list expr) (st st' : vstate) : Prop :=
    (forall x, In x (vs_s st) -> In x (vs_s st')) /\
    (forall x, In x (vs_v st) -> In x (vs_v st')) /\
    inv st' /\ (forall p, In p l -> covered_h p (vs_v st')) /\
    (forall r, In r (vs_v st') -> In r (vs_v st) \/ dn (vs_v st') (vs_s st') (snd r)).

  Variable visit : hx -> vstate -> vstate.
  Variable ok : expr -> Prop.
  Hypothesis dn_mono : forall V S V' S' r, (forall x, In x V -> In x V') -> (forall x, In x S -> In x S') ->
    dn V S r -> dn V' S' r.
  Hypothesis inv_push : forall st p, inv st -> ok p -> inv (mkV (vs_s st) (mk_hx p :: vs_v st) (vs_out st)).
  Hypothesis visit_ok : forall p st, ok p -> inv st -> visit_post p st (visit (mk_hx p) st).

  Lemma memo_list_post : forall l st, (forall p, In p l -> ok p) -> inv st -> loop_post l st (memo_list visit l st).
  Proof using dn_mono inv_push visit_ok.
    apply (memo_list_rel visit ok (fun l st st' => inv st -> loop_post l st st')).
    - intros st Hinv. split; [auto|]. split; [auto|]. split; [exact Hinv|]. split; [intros p []|auto].
    - intros p l a b c Hab Hbc Ha. destruct (Hab Ha) as (A1 & A2 & A3 & A4 & A5).
      destruct (Hbc A3) as (B1 & B2 & B3 & B4 & B5).
      split; [auto|]. split; [auto|]. split; [exact B3|]. split.
      + intros q [<-|Hq]; [eapply covered_h_mono; [exact B2|]; apply A4; left; reflexivity|apply B4; exact Hq].
      + intros r Hr. destruct (B5 r Hr) as [Hr'|Hr']; [|right; exact Hr'].
        destruct (A5 r Hr') as [Hr2|Hr2]; [left; exact Hr2|right]. eapply dn_mono; [exact B2|exact B1|exact Hr2].
    - intros st p _ E Hinv. split; [auto|]. split; [auto|]. split; [exact Hinv|]. split; [|auto].
      intros q [<-|[]]. apply uset_mem_covered_h. exact E.
    - intros st p Hok Hinv. set (st0 := mkV (vs_s st) (mk_hx p :: vs_v st) (vs_out st)).
      destruct (visit_ok p st0 Hok (inv_push st p Hinv Hok)) as (P1 & P2 & P3 & P4 & P5).
      split; [exact P1|]. split; [|split; [exact P3|split]].
      + intros x Hx. apply P2. cbn [st0 vs_v]. right. exact Hx.
      + intros q [<-|[]]. exists (mk_hx p). split; [apply P2; cbn [st0 vs_v]; left; reflexivity|left; reflexivity].
      + intros r Hr. destruct (P5 r Hr) as [Hr'|Hr']; [|right; exact Hr'].
        cbn [st0 vs_v] in Hr'. destruct Hr' as [<-|Hr']; [right; exact P4|left; exact Hr'].
  Qed.
End MemoLoop.

(* the nodes the visitor recurses into through the memo set *)
Definition fs_children (e : expr) : list expr :=
  match e with
  | ESym _ | EDummy _ _ => []
  | ESubs a d => map snd d
  | _ => get_args e
  end.
(* what the visit of the node itself must have put into s *)
Definition fs_local (e : expr) (S : list hx) : Prop :=
  match e with
  | ESym _ | EDummy _ _ => In e (map snd S)
  | ESubs a d => forall s, occurs B_code s a -> ~ In s (map fst d) -> In s (map snd S)
  | _ => True
  end.
Definition done (V S : list hx) (r : expr) : Prop :=
  fs_local r S /\ forall p, In p (fs_children r) -> covered_h p V.

Lemma fs_local_mono : forall e S S', (forall x, In x S -> In x S') -> fs_local e S -> fs_local e S'.
Proof.
  intros e S S' H. assert (G : forall y, In y (map snd S) -> In y (map snd S')).
  { intros y Hy. apply in_map_iff in Hy. destruct Hy as (x & <- & Hx). apply in_map. auto. }
  destruct e; cbn [fs_local]; auto.
Qed.
Lemma done_mono : forall V S V' S' r, (forall x, In x V -> In x V') -> (forall x, In x S -> In x S') ->
  done V S r -> done V' S' r.
Proof.
  intros V S V' S' r HV HS [H1 H2]. split; [eapply fs_local_mono; eauto|].
  intros p Hp. eapply covered_h_mono; eauto.
Qed.

Definition vinv (st : vstate) : Prop :=
  all_sym_ok (vs_s st) /\ forall r, In r (vs_v st) -> tree_ok (snd r) = true.

Definition post : expr -> vstate -> vstate -> Prop := visit_post vinv done.

Definition complete_at (f : nat) : Prop :=
  forall e s, (weight e <= f)%nat -> tree_ok e = true -> occurs B_code s e ->
    In s (map snd (vs_s (fs_visit f (mk_hx e) v_empty))).

Definition post_at (f : nat) : Prop :=
  forall he st, (weight (snd he) <= f)%nat -> hx_ok he -> tree_ok (snd he) = true -> vinv st ->
    post (snd he) st (fs_visit f he st).

Lemma fs_list_post : forall f, post_at f -> forall l st,
  (forall p, In p l -> (weight p <= f)%nat /\ tree_ok p = true) -> vinv st ->
  loop_post vinv done l st (fs_list f l st).
Proof.
  intros f PF. apply (memo_list_post vinv done (fs_visit f) (fun p => (weight p <= f)%nat /\ tree_ok p = true)).
  - exact done_mono.
  - intros st p Hinv [_ Hok]. split; [apply Hinv|]. cbn [vs_v]. intros r [<-|Hr]; [exact Hok|apply Hinv; exact Hr].
  - intros p st [Hw Hok] Hinv. exact (PF (mk_hx p) st Hw (mk_hx_ok p) Hok Hinv).
Qed.

Lemma all_sym_ok_insert : forall k m, all_sym_ok m -> hx_ok k -> is_sym (snd k) = true -> all_sym_ok (set_insert k m).
Proof.
  intros k m Hm Hk Hs x Hx. apply set_insert_in in Hx. destruct Hx as [->|Hx]; [split; assumption|apply Hm; exact Hx].
Qed.

Lemma post_step : forall f, post_at f -> complete_at f -> post_at (S f).
Proof.
  intros f PF CF [h e] st Hw Hok Htree Hinv. cbn [snd] in *. apply fs_visit_cases.
  { intros Hs. destruct Hinv as [Hi1 Hi2].
    split; [|split; [|split; [split|split; [split|]]]]; cbn [vs_s vs_v]; auto.
    - intros x Hx. apply set_insert_keep. exact Hx.
    - apply all_sym_ok_insert; auto.
    - pose proof (set_insert_new_sym (h, e) (vs_s st) Hs (fun y Hy => proj2 (Hi1 y Hy))) as G. cbn [snd] in G.
      destruct e; try discriminate; exact G.
    - destruct e; try discriminate; intros p []. }
  { intros Hns Hnsub.
    destruct (fs_list_post f PF (get_args e) st) as (L1 & L2 & L3 & L4 & L5).
    - intros p Hp. split; [apply weight_args in Hp; lia|eapply tree_ok_args; eauto].
    - exact Hinv.
    - split; [exact L1|]. split; [exact L2|]. split; [exact L3|]. split; [split|exact L5].
      + destruct e; cbn [fs_local]; try exact I; discriminate.
      + intros p Hp. apply L4. destruct e; cbn [fs_children] in Hp; try exact Hp; discriminate. }
  intros e' d ->. rename e' into e.
  set (st1 := fs_subs_state f e d st).
  pose proof (fs_sound_aux f (mk_hx e) v_empty ltac:(cbn [snd mk_hx weight] in *; lia) (mk_hx_ok e)) as (I1 & I2 & I3).
  cbn [snd mk_hx] in I3.
  assert (Hta : tree_ok e = true) by (eapply tree_ok_subs_arg; eauto).
  assert (SET : forall x, In x (fold_left (fun m p => set_erase (mk_hx p) m) (map fst d) (vs_s (fs_visit f (mk_hx e) v_empty))) ->
                 hx_ok x /\ is_sym (snd x) = true).
  { intros x Hx. apply set_erase_all_in in Hx. destruct Hx as [Hx _]. apply I3 in Hx.
    destruct Hx as [[]|(K1 & K2 & _)]. auto. }
  assert (Hinv1 : vinv st1).
  { destruct Hinv as [Hi1 Hi2]. split; [|exact Hi2]. cbn [st1 fs_subs_state vs_s].
    intros x Hx. apply set_insert_all_in in Hx. destruct Hx as [Hx|Hx]; [apply SET; exact Hx|apply Hi1; exact Hx]. }
  assert (LOC : fs_local (ESubs e d) (vs_s st1)).
  { cbn [fs_local]. intros s Hocc Hnot.
    pose proof (CF e s ltac:(cbn [weight] in Hw; lia) Hta Hocc) as Hin.
    apply in_map_iff in Hin. destruct Hin as (x & Hxs & Hx).
    assert (Hsym : is_sym s = true) by (eapply occurs_is_sym; eauto).
    assert (Hset : In x (fold_left (fun m p => set_erase (mk_hx p) m) (map fst d) (vs_s (fs_visit f (mk_hx e) v_empty)))).
    { apply set_erase_all_in. split; [exact Hx|]. intros p Hp.
      destruct (set_equiv (mk_hx p) x) eqn:E; [|reflexivity]. exfalso.
      apply in_map_iff in Hp. destruct Hp as ([k v] & <- & Hkv). cbn [fst] in E.
      apply set_equiv_sym in E.
      - cbn [snd mk_hx] in E. apply Hnot. rewrite <- Hxs, <- E. apply in_map_iff. exists (k, v). auto.
      - cbn [snd mk_hx]. eapply bad_subs; [apply tree_ok_node; exact Htree|exact Hkv].
      - rewrite Hxs. exact Hsym. }
    cbn [st1 fs_subs_state vs_s]. rewrite <- Hxs.
    apply (set_insert_all_new_sym _ (vs_s st) ); auto.
    - intros y Hy. apply SET. exact Hy.
    - intros y Hy. apply Hinv. exact Hy. }
  destruct (fs_list_post f PF (map snd d) st1) as (L1 & L2 & L3 & L4 & L5).
  - intros p Hp. split; [pose proof (weight_subs_point e d p Hp); lia|].
    eapply tree_ok_args; [exact Htree|]. cbn [get_args]. right. apply in_or_app. right. exact Hp.
  - exact Hinv1.
  - split; [|split; [exact L2|split; [exact L3|split; [split|exact L5]]]].
    + intros x Hx. apply L1. cbn [st1 fs_subs_state vs_s]. apply set_insert_all_keep. exact Hx.
    + eapply fs_local_mono; [exact L1|exact LOC].
    + exact L4.
Qed.

Lemma closed_cover : forall V S (root : expr),
  (forall r, In r V -> tree_ok (snd r) = true) -> tree_ok root = true ->
  (forall r, In r V -> done V S (snd r)) -> done V S root ->
  forall n s r, (r = root \/ In r (map snd V)) -> occn B_code s n r -> In s (map snd S).
Proof.
  intros V S root HVok Hrok HVdone Hrdone n. induction n as [n IH] using lt_wf_ind. intros s r Hr Hocc.
  assert (Rok : tree_ok r = true).
  { destruct Hr as [->|Hr]; [exact Hrok|]. apply in_map_iff in Hr. destruct Hr as (x & <- & Hx). auto. }
  assert (Rdone : done V S r).
  { destruct Hr as [->|Hr]; [exact Hrdone|]. apply in_map_iff in Hr. destruct Hr as (x & <- & Hx). auto. }
  destruct Rdone as [Rloc Rch].
  destruct n as [|m]; [destruct Hocc|].
  (* crossing a covered child *)
  assert (CROSS : forall t, In t (fs_children r) -> tree_ok t = true -> occn B_code s m t -> In s (map snd S)).
  { intros t Ht Htok Hoc. destruct (Rch t Ht) as (q & Hq & Hc).
    apply (IH m (Nat.lt_succ_diag_r m) s (snd q)); [right; apply in_map; exact Hq|].
    destruct Hc as [->|[_ Hc]]; [exact Hoc|].
    apply (eqb_occn B_code eq_refl m t (snd q) s Htok (HVok q Hq) Hc). exact Hoc. }
  assert (Hsym_case : is_sym s = true /\ r = s -> In s (map snd S)).
  { intros [Hs ->]. destruct s; try discriminate; exact Rloc. }
  destruct (is_subs r) eqn:Esub.
  - (* Subs *)
    destruct r; try discriminate. cbn [occn] in Hocc.
    destruct Hocc as [Hb|[[H1 H2]|[[Hb _]|(k & v & Hin & Hv)]]].
    + apply Hsym_case. exact Hb.
    + cbn [fs_local] in Rloc. apply Rloc; [eapply occn_occurs; eauto|apply H2; reflexivity].
    + discriminate.
    + apply (CROSS v); [cbn [fs_children]; apply in_map_iff; exists (k, v); auto| |exact Hv].
      eapply tree_ok_args; [exact Rok|]. cbn [get_args]. right. apply in_or_app. right.
      apply in_map_iff. exists (k, v). auto.
  - (* any other node *)
    destruct (occn_arg_down B_code s m r eq_refl Rok Esub Hocc) as [D|(t & Ht & Hoc)]; [apply Hsym_case; exact D|].
    apply (CROSS t); [|eapply tree_ok_args; eauto|exact Hoc].
    destruct r; cbn [fs_children]; try exact Ht; try (destruct Ht; fail); discriminate.
Qed.

Lemma complete_step : forall f, post_at f -> complete_at f.
Proof.
  intros f PF e s Hw Hok Hocc.
  assert (Hinv0 : vinv v_empty) by (split; intros x []).
  destruct (PF (mk_hx e) v_empty Hw (mk_hx_ok e) Hok Hinv0) as (P1 & P2 & P3 & P4 & P5). cbn [snd mk_hx] in *.
  apply occurs_occn in Hocc. destruct Hocc as [n Hn].
  eapply (closed_cover (vs_v (fs_visit f (mk_hx e) v_empty)) _ e); [apply P3|exact Hok| |exact P4|left; reflexivity|exact Hn].
  intros r Hr. destruct (P5 r Hr) as [[]|Hd]. exact Hd.
Qed.

Lemma post_all : forall f, post_at f.
Proof.
  induction f as [|f IH].
  - intros he st Hw. pose proof (weight_pos (snd he)). lia.
  - apply post_step; [exact IH|apply complete_step; exact IH].
Qed.

Theorem fs_complete : forall e s, tree_ok e = true -> occurs_code s e -> In s (free_symbols e).
Proof.
  intros e s Hok Hocc. unfold free_symbols, free_symbols_st.
  apply (complete_step (weight e) (post_all _) e s (le_n _) Hok Hocc).
Qed.

(* the model-level specification of what the code computes *)
Theorem free_symbols_code_spec : forall e, tree_ok e = true ->
  vs_out (free_symbols_st e) = false /\
  forall s, In s (free_symbols e) <-> occurs_code s e.
Proof.
  intros e Hok. split; [apply fs_terminates|]. intros s. split.
  - intros H. apply fs_sound in H. tauto.
  - apply fs_complete. exact Hok.
Qed.
