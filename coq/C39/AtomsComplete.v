(* C39 -- atoms<...> is complete up to the library's equality: every selected subexpression
   of e is represented in atoms(e) by a tree related to it by the equivalence closure of
   "eq (either orientation) or RCPBasicKeyLess-equivalent".  (On well-formed trees C01 / C02 prove
   that this closure is eq itself.) *)
From SE Require Export C39.AtomsArgs.
From Coq Require Import Relations.
Local Open Scope N_scope.

Inductive subarg_n : nat -> expr -> expr -> Prop :=
| SN_0 : forall e, subarg_n 0 e e
| SN_S : forall n x p e, In p (get_args e) -> subarg_n n x p -> subarg_n (S n) x e.
Lemma subarg_subarg_n : forall x e, subarg x e -> exists n, subarg_n n x e.
Proof.
  intros x e H. induction H; [exists 0%nat; constructor|]. destruct IHsubarg as [n Hn]. exists (S n). econstructor; eauto.
Qed.
Lemma subarg_n_subarg : forall n x e, subarg_n n x e -> subarg x e.
Proof. intros n x e H. induction H; [apply SA_refl|eapply SA_step; eauto]. Qed.

Lemma subarg_tree_ok : forall x e, subarg x e -> tree_ok e = true -> tree_ok x = true.
Proof. intros x e H. induction H; auto. intros He. apply IHsubarg. eapply tree_ok_args; eauto. Qed.
Lemma subarg_nums_ok : forall x e, subarg x e -> nums_ok e = true -> nums_ok x = true.
Proof. intros x e H. induction H; auto. intros He. apply IHsubarg. eapply nums_ok_args; eauto. Qed.

(* eq trees have eq subexpressions at every depth *)
Lemma sim_subarg : forall n p q x, tree_ok p = true -> tree_ok q = true -> nums_ok p = true -> nums_ok q = true ->
  eqs p q -> subarg_n n x p -> exists x', subarg_n n x' q /\ eqs x x'.
Proof.
  induction n as [|n IH]; intros p q x Tp Tq Np Nq He H; inversion H; subst.
  - exists q. split; [constructor|exact He].
  - destruct (args_sim p q Tp Tq Np Nq He p0 H1) as (q' & Hq' & Hs).
    destruct (IH p0 q' x (tree_ok_args _ _ Tp H1) (tree_ok_args _ _ Tq Hq') (nums_ok_args _ _ Np H1) (nums_ok_args _ _ Nq Hq') Hs H2)
      as (x' & Hx' & Hxs).
    exists x'. split; [econstructor; eauto|exact Hxs].
Qed.

Lemma sel_match_eqs : forall ks x y, eqs x y -> sel_match ks x = sel_match ks y.
Proof. intros ks x y [H|H]; [apply sel_match_cong; exact H|symmetry; apply sel_match_cong; exact H]. Qed.

(* the library's equality, closed to an equivalence *)
Definition same1 (a b : expr) : Prop := eqs a b \/ set_equiv (mk_hx a) (mk_hx b) = true.
Definition same : expr -> expr -> Prop := clos_refl_sym_trans expr same1.

Theorem atoms_complete : forall ks e x, tree_ok e = true -> nums_ok e = true ->
  subarg x e -> sel_match ks x = true -> exists y, In y (atoms ks e) /\ same x y.
Proof.
  intros ks e x Te Ne Hsub Hsel. unfold atoms.
  destruct (atoms_final ks e) as ((Q1 & Q2) & _ & ALL). set (st := atoms_st ks e) in *.
  assert (COVER : forall n r z, (r = e \/ In r (map snd (vs_v st))) -> subarg_n n z r -> sel_match ks z = true ->
             exists y, In y (vs_s st) /\ same z (snd y)).
  { induction n as [|n IH]; intros r z Hr Hz Hselz; inversion Hz; subst.
    - destruct (ALL r Hr) as [[D1 _] _]. destruct (D1 Hselz) as (y & Hy & Hc). exists y. split; [exact Hy|].
      destruct Hc as [->|Hc]; [apply rst_refl|].
      destruct (Q1 y Hy) as (Y1 & _). rewrite (hx_ok_eq y Y1) in Hc. cbn [snd mk_hx] in Hc.
      apply rst_sym. apply rst_step. right. exact Hc.
    - destruct (ALL r Hr) as [[_ D2] Hre]. destruct (D2 p H0) as (q & Hq & Hc).
      destruct (Q2 q Hq) as (_ & Hqe).
      destruct Hc as [Hc|[_ Hc]].
      + apply (IH p z); [right; rewrite <- Hc; apply in_map; exact Hq|exact H1|exact Hselz].
      + assert (Hpe : subarg p e) by (eapply subarg_trans; [apply subarg_arg; exact H0|exact Hre]).
        destruct (sim_subarg n p (snd q) z (subarg_tree_ok _ _ Hpe Te) (subarg_tree_ok _ _ Hqe Te)
                    (subarg_nums_ok _ _ Hpe Ne) (subarg_nums_ok _ _ Hqe Ne) (or_introl Hc) H1) as (z' & Hz' & Hs).
        destruct (IH (snd q) z') as (y & Hy & Hsame).
        * right. apply in_map. exact Hq.
        * exact Hz'.
        * rewrite <- (sel_match_eqs ks z z' Hs). exact Hselz.
        * exists y. split; [exact Hy|]. eapply rst_trans; [apply rst_step; left; exact Hs|exact Hsame]. }
  destruct (subarg_subarg_n x e Hsub) as [n Hn].
  destruct (COVER n e x (or_introl eq_refl) Hn Hsel) as (y & Hy & Hsame).
  exists (snd y). split; [apply in_map; exact Hy|exact Hsame].
Qed.

Theorem function_symbols_complete : forall e nm args, tree_ok e = true -> nums_ok e = true ->
  subarg (EFunSym nm args) e -> exists y, In y (function_symbols e) /\ same (EFunSym nm args) y.
Proof. intros. apply atoms_complete; auto. Qed.
