(* C39 -- free_symbols against the property's notion occurs_free (Subs, ImageSet and
   ConditionSet bind): the guarded theorem and the refutation. *)
From SE Require Export C39.FsComplete.
From SE Require Import Expr.Unfold.
Local Open Scope N_scope.

(* without ImageSet / ConditionSet nodes, modes that treat Subs alike see the same occurrences *)
Lemma occurs_sets_mode : forall B B' s e, b_subs B = b_subs B' -> guard_set_binder e = false ->
  occurs B s e -> occurs B' s e.
Proof.
  intros B B' s e Hb. apply (occurs_mode B B' (fun x => any_node is_set_binder x = false)).
  - intros x c. apply no_node_child.
  - intros x Hx. apply any_node_false in Hx. split; [rewrite (proj1 Hx); discriminate|].
    intros _ H. rewrite Hb. exact H.
Qed.

(* the property, on trees without ImageSet / ConditionSet *)
Theorem free_symbols_spec_guarded : forall e, tree_ok e = true -> guard_set_binder e = false ->
  forall s, In s (free_symbols e) <-> occurs_free s e.
Proof.
  intros e Hok Hg s. destruct (free_symbols_code_spec e Hok) as [_ H]. rewrite H. unfold occurs_code, occurs_free.
  split; apply occurs_sets_mode; auto.
Qed.

(* the defect: the bound symbol of an ImageSet (ConditionSet) is reported free *)
Definition sym_x : expr := ESym [120].
Definition sym_y : expr := ESym [121].
Definition wit_imageset : expr :=           (* ImageSet(x, x**2, Reals) *)
  EFN TC_ImageSet [sym_x; EPow sym_x (ENum (NInt 2)); EAtom TC_Reals].
Definition wit_condset : expr :=            (* ConditionSet(x, y < x) *)
  EFN TC_ConditionSet [sym_x; EF2 TC_StrictLessThan sym_y sym_x].

Theorem free_symbols_refuted :
  exists e s, tree_ok e = true /\ In s (free_symbols e) /\ ~ occurs_free s e.
Proof.
  exists wit_imageset, sym_x. split; [reflexivity|]. split; [vm_compute; left; reflexivity|].
  intros H. apply occurs_occn in H. destruct H as [n H]. destruct n; [destruct H|].
  cbn [occn wit_imageset] in H. destruct H as [[_ H]|H]; [discriminate|].
  change (set_binder_node B_all TC_ImageSet [sym_x; EPow sym_x (ENum (NInt 2)); EAtom TC_Reals]) with true in H.
  cbv iota in H. destruct H as [[_ H]|H]; [apply H; reflexivity|].
  destruct n; [destruct H|]. cbn [occn] in H. destruct H as [[_ H]|H]; [discriminate|exact H].
Qed.
Theorem free_symbols_refuted_condset :
  In sym_x (free_symbols wit_condset) /\ ~ occurs_free sym_x wit_condset.
Proof.
  split; [vm_compute; left; reflexivity|].
  intros H. apply occurs_occn in H. destruct H as [n H]. destruct n; [destruct H|].
  cbn [occn wit_condset] in H. destruct H as [[_ H]|H]; [discriminate|].
  change (set_binder_node B_all TC_ConditionSet [sym_x; EF2 TC_StrictLessThan sym_y sym_x]) with true in H.
  cbv iota in H. destruct H as [_ H]. apply H. reflexivity.
Qed.
