(* C39 -- AtomsVisitor / atoms<...> / function_symbols.
   Soundness (exact): every reported element is a subexpression (reachable through get_args)
   of a selected class.  Termination.  Completeness in its exact form: every selected
   subexpression is reported, on trees on which the library's equality (same hash and eq, or
   RCPBasicKeyLess equivalence) identifies no two different subexpression trees ([closure_exact]).
   The set and the memo set work modulo that equality, so in general "reported" can only mean
   "an equal tree is reported": that is AtomsComplete.atoms_complete. *)
From SE Require Export C39.HasSym.
From Coq Require Import Lia.
Local Open Scope N_scope.

Definition at_pre (ks : list akind) (he : hx) (st : vstate) : vstate :=
  if sel_match ks (snd he)
  then mkV (set_insert he (vs_s st)) (uset_insert he (vs_v st)) (vs_out st)
  else st.
Definition at_list (ks : list akind) (f : nat) := memo_list (at_visit ks f).
Lemma at_visit_S : forall ks f he st,
  at_visit ks (S f) he st = at_list ks f (get_args (snd he)) (at_pre ks he st).
Proof. reflexivity. Qed.

Lemma subarg_trans : forall x p e, subarg x p -> subarg p e -> subarg x e.
Proof. intros x p e H1 H2. induction H2; [exact H1|]. eapply SA_step; eauto. Qed.
Lemma subarg_arg : forall p e, In p (get_args e) -> subarg p e.
Proof. intros. eapply SA_step; [eassumption|apply SA_refl]. Qed.

Definition a_sound (ks : list akind) (root : expr) (st : vstate) : Prop :=
  (forall x, In x (vs_s st) -> hx_ok x /\ sel_match ks (snd x) = true /\ subarg (snd x) root) /\
  (forall r, In r (vs_v st) -> hx_ok r /\ subarg (snd r) root).

(* a step from st to st' keeps a_sound and the fuel flag, and only adds to the two sets *)
Definition a_keeps (ks : list akind) (root : expr) (st st' : vstate) : Prop :=
  a_sound ks root st ->
  a_sound ks root st' /\ vs_out st' = vs_out st /\
  (forall x, In x (vs_s st) -> In x (vs_s st')) /\ (forall x, In x (vs_v st) -> In x (vs_v st')).
Lemma a_keeps_refl : forall ks root st, a_keeps ks root st st.
Proof. intros ks root st H. auto. Qed.
Lemma a_keeps_trans : forall ks root a b c, a_keeps ks root a b -> a_keeps ks root b c -> a_keeps ks root a c.
Proof.
  intros ks root a b c Hab Hbc Ha. destruct (Hab Ha) as (A1 & A2 & A3 & A4). destruct (Hbc A1) as (B1 & B2 & B3 & B4).
  split; [exact B1|]. split; [congruence|]. split; auto.
Qed.

Lemma at_pre_s_keep : forall ks he st x, In x (vs_s st) -> In x (vs_s (at_pre ks he st)).
Proof.
  intros ks he st x Hx. unfold at_pre. destruct (sel_match ks (snd he)); [|exact Hx].
  cbn [vs_s]. apply set_insert_keep. exact Hx.
Qed.
Lemma at_pre_v_keep : forall ks he st x, In x (vs_v st) -> In x (vs_v (at_pre ks he st)).
Proof.
  intros ks he st x Hx. unfold at_pre. destruct (sel_match ks (snd he)); [|exact Hx].
  cbn [vs_v]. unfold uset_insert. destruct (uset_mem he (vs_v st)); [exact Hx|right; exact Hx].
Qed.

Lemma at_sound_aux : forall ks root f he st, (weight (snd he) <= f)%nat -> hx_ok he ->
  subarg (snd he) root -> a_keeps ks root st (at_visit ks f he st).
Proof.
  intros ks root. induction f as [|f IH]; intros he st Hw Hok Hsub; [pose proof (weight_pos (snd he)); lia|].
  rewrite at_visit_S. apply a_keeps_trans with (at_pre ks he st).
  - intros Hs. split; [|split; [|split; [apply at_pre_s_keep|apply at_pre_v_keep]]].
    2: { unfold at_pre. destruct (sel_match ks (snd he)); reflexivity. }
    unfold at_pre. destruct (sel_match ks (snd he)) eqn:E; [|exact Hs].
    destruct Hs as [Hs1 Hs2]. split; cbn [vs_s vs_v].
    + intros x Hx. apply set_insert_in in Hx. destruct Hx as [->|Hx]; auto.
    + intros r Hr. unfold uset_insert in Hr. destruct (uset_mem he (vs_v st)); [auto|].
      destruct Hr as [<-|Hr]; auto.
  - apply (memo_list_rel (at_visit ks f) (fun p => (weight p <= f)%nat /\ subarg p root) (fun _ => a_keeps ks root)).
    + apply a_keeps_refl.
    + intros _ _. apply a_keeps_trans.
    + intros st0 p _ _. apply a_keeps_refl.
    + intros st0 p [Hwp Hsp] Hs0. set (st1 := mkV (vs_s st0) (mk_hx p :: vs_v st0) (vs_out st0)).
      assert (Hs1 : a_sound ks root st1).
      { destruct Hs0 as [A1 A2]. split; [exact A1|]. cbn [st1 vs_v]. intros r [<-|Hr]; [split; [apply mk_hx_ok|exact Hsp]|auto]. }
      destruct (IH (mk_hx p) st1 Hwp (mk_hx_ok p) Hsp Hs1) as (Q1 & Q2 & Q3 & Q4).
      split; [exact Q1|]. split; [exact Q2|]. split; [exact Q3|]. intros x Hx. apply Q4. right. exact Hx.
    + intros p Hp. split; [apply weight_args in Hp; lia|]. eapply subarg_trans; [apply subarg_arg; exact Hp|exact Hsub].
Qed.

Definition a_done (ks : list akind) (V S : list hx) (r : expr) : Prop :=
  (sel_match ks r = true -> exists y, In y S /\ (y = mk_hx r \/ set_equiv y (mk_hx r) = true)) /\
  (forall p, In p (get_args r) -> covered_h p V).

Lemma a_done_mono : forall ks V S V' S' r, (forall x, In x V -> In x V') -> (forall x, In x S -> In x S') ->
  a_done ks V S r -> a_done ks V' S' r.
Proof.
  intros ks V S V' S' r HV HS [H1 H2]. split.
  - intros Hsel. destruct (H1 Hsel) as (y & Hy & Hc). exists y. auto.
  - intros p Hp. eapply covered_h_mono; eauto.
Qed.
Definition a_post (ks : list akind) : expr -> vstate -> vstate -> Prop := visit_post (fun _ => True) (a_done ks).

Lemma at_post_aux : forall ks f he st, (weight (snd he) <= f)%nat -> hx_ok he ->
  a_post ks (snd he) st (at_visit ks f he st).
Proof.
  intros ks. induction f as [|f IH]; intros he st Hw Hok; [pose proof (weight_pos (snd he)); lia|].
  rewrite at_visit_S.
  assert (LIST : forall l st0, (forall p, In p l -> (weight p <= f)%nat) ->
            loop_post (fun _ => True) (a_done ks) l st0 (at_list ks f l st0)).
  { intros l st0 Hl. apply (memo_list_post (fun _ => True) (a_done ks) (at_visit ks f) (fun p => (weight p <= f)%nat)); auto.
    - apply a_done_mono.
    - intros p st1 Hwp _. exact (IH (mk_hx p) st1 Hwp (mk_hx_ok p)). }
  destruct (LIST (get_args (snd he)) (at_pre ks he st)) as (L1 & L2 & _ & L3 & L4).
  { intros p Hp. apply weight_args in Hp. lia. }
  pose proof (at_pre_s_keep ks he st) as P3. pose proof (at_pre_v_keep ks he st) as P4.
  assert (D : a_done ks (vs_v (at_list ks f (get_args (snd he)) (at_pre ks he st)))
                      (vs_s (at_list ks f (get_args (snd he)) (at_pre ks he st))) (snd he)).
  { split; [|exact L3]. intros Hsel.
    assert (G : exists y, In y (vs_s (at_pre ks he st)) /\ (y = he \/ set_equiv y he = true)).
    { unfold at_pre. rewrite Hsel. cbn [vs_s].
      destruct (set_insert_new he (vs_s st)) as [H|(k' & Hk & He)]; [exists he; auto|].
      exists k'. split; [apply set_insert_keep; exact Hk|right; exact He]. }
    destruct G as (y & Hy & Hc). exists y. split; [apply L1; exact Hy|].
    rewrite <- (hx_ok_eq he Hok). exact Hc. }
  split; [auto|]. split; [auto|]. split; [exact I|]. split; [exact D|].
  intros r Hr. destruct (L4 r Hr) as [Hr'|Hr']; [|right; exact Hr'].
  unfold at_pre in Hr'. destruct (sel_match ks (snd he)) eqn:Esel; [|left; exact Hr'].
  cbn [vs_v] in Hr'. unfold uset_insert in Hr'. destruct (uset_mem he (vs_v st)); [left; exact Hr'|].
  destruct Hr' as [<-|Hr']; [right; exact D|left; exact Hr'].
Qed.

(* sound, and closed: the root and every member of the memo set are done *)
Lemma atoms_final : forall ks e, let st := atoms_st ks e in
  a_sound ks e st /\ vs_out st = false /\
  forall r, r = e \/ In r (map snd (vs_v st)) -> a_done ks (vs_v st) (vs_s st) r /\ subarg r e.
Proof.
  intros ks e. cbn zeta. unfold atoms_st.
  destruct (at_post_aux ks (weight e) (mk_hx e) v_empty (le_n _) (mk_hx_ok e)) as (_ & _ & _ & P3 & P4).
  assert (S0 : a_sound ks e v_empty) by (split; intros x []).
  destruct (at_sound_aux ks e (weight e) (mk_hx e) v_empty (le_n _) (mk_hx_ok e) (SA_refl e) S0) as (Q & Hout & _).
  split; [exact Q|]. split; [exact Hout|].
  intros r [->|Hr]; [split; [exact P3|apply SA_refl]|].
  apply in_map_iff in Hr. destruct Hr as (y & <- & Hy). split; [|apply Q; exact Hy].
  destruct (P4 y Hy) as [[]|Hd]. exact Hd.
Qed.

Theorem atoms_terminates : forall ks e, vs_out (atoms_st ks e) = false.
Proof. intros ks e. apply atoms_final. Qed.

Theorem atoms_sound : forall ks e x, In x (atoms ks e) -> sel_match ks x = true /\ subarg x e.
Proof.
  intros ks e x H. unfold atoms in H. apply in_map_iff in H. destruct H as (y & <- & Hy).
  destruct (atoms_final ks e) as ((H1 & _) & _). apply (H1 y Hy).
Qed.

(* no two different subexpression trees of e are identified by the library's equality *)
Definition closure_exact (e : expr) : Prop :=
  forall p q, subarg p e -> subarg q e -> hash p = hash q ->
    expr_eqb p q = true \/ set_equiv (mk_hx p) (mk_hx q) = true -> p = q.

Lemma set_equiv_hash : forall a b, set_equiv a b = true -> fst a = fst b.
Proof. intros a b H. apply set_equiv_iff in H. apply H. Qed.

(* In general the result set holds one representative of each class of the library's equality
   (AtomsComplete.atoms_complete); [closure_exact e] (distinct subexpression trees are never
   identified) makes "a representative" the tree itself. *)
Theorem atoms_complete_exact : forall ks e x, closure_exact e ->
  subarg x e -> sel_match ks x = true -> In x (atoms ks e).
Proof.
  intros ks e x Hex Hsub Hsel. unfold atoms.
  destruct (atoms_final ks e) as ((Q1 & Q2) & _ & ALL). set (st := atoms_st ks e) in *.
  assert (COVER : forall r, subarg x r -> (r = e \/ In r (map snd (vs_v st))) -> In x (map snd (vs_s st))).
  { intros r H. induction H as [r|x p r Hp Hx IH]; intros Hr.
    - destruct (ALL r Hr) as [[D1 _] Hre]. destruct (D1 Hsel) as (y & Hy & Hc).
      destruct (Q1 y Hy) as (Y1 & Y2 & Y3).
      destruct Hc as [->|Hc]; [apply in_map_iff; exists (mk_hx r); auto|].
      assert (snd y = r).
      { apply Hex; auto.
        - apply set_equiv_hash in Hc. cbn [fst mk_hx] in Hc. unfold hx_ok in Y1. congruence.
        - right. rewrite <- (hx_ok_eq y Y1). exact Hc. }
      subst r. apply in_map. exact Hy.
    - destruct (ALL r Hr) as [[_ D2] Hre]. destruct (D2 p Hp) as (q & Hq & Hc).
      destruct (Q2 q Hq) as (Y1 & Y2).
      assert (snd q = p).
      { destruct Hc as [Hc|[Hc1 Hc2]]; [exact Hc|]. symmetry. apply Hex; auto.
        - eapply subarg_trans; [apply subarg_arg; exact Hp|exact Hre].
        - unfold hx_ok in Y1. congruence. }
      apply IH; auto. right. rewrite <- H. apply in_map. exact Hq. }
  apply (COVER e Hsub). left. reflexivity.
Qed.

(* function_symbols = atoms<FunctionSymbol> *)
Theorem function_symbols_sound : forall e x, In x (function_symbols e) ->
  (exists nm args, x = EFunSym nm args) /\ subarg x e.
Proof.
  intros e x H. apply atoms_sound in H. destruct H as [H1 H2]. split; [|exact H2].
  unfold sel_match in H1. cbn [existsb] in H1. rewrite orb_false_r in H1.
  destruct x; try discriminate. eauto.
Qed.
Theorem function_symbols_complete_exact : forall e nm args, closure_exact e ->
  subarg (EFunSym nm args) e -> In (EFunSym nm args) (function_symbols e).
Proof. intros. apply atoms_complete_exact; auto. Qed.
