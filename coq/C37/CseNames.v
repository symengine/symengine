(* C37 -- the candidate names "x" + to_string(k) are pairwise different for different k
   (decimal printing is injective). *)
From SE Require Export C37.CseCheckProofs.
From Coq Require Import Lia.
Local Open Scope N_scope.

Definition dstep (a d : N) : N := a * 10 + d.

Lemma fold_dstep_shift : forall l x, fold_left dstep l x = x * 10 ^ N.of_nat (length l) + fold_left dstep l 0.
Proof.
  induction l as [|d l IH]; intro x.
  - cbn. lia.
  - cbn [fold_left length]. rewrite (IH (dstep x d)), (IH (dstep 0 d)). unfold dstep.
    rewrite Nat2N.inj_succ, N.pow_succ_r'. lia.
Qed.

Lemma digits_aux_value : forall fuel n acc, n < 10 ^ N.of_nat fuel ->
  fold_left dstep (digits_aux fuel n acc) 0 = n * 10 ^ N.of_nat (length acc) + fold_left dstep acc 0.
Proof.
  induction fuel as [|f IH]; intros n acc Hn.
  - cbn in Hn. assert (n = 0) by lia. subst n. cbn [digits_aux]. lia.
  - cbn [digits_aux]. destruct (n <? 10) eqn:E.
    + cbn [fold_left]. rewrite fold_dstep_shift. unfold dstep. lia.
    + apply N.ltb_ge in E. rewrite IH.
      * cbn [length fold_left]. rewrite (fold_dstep_shift acc (dstep 0 (n mod 10))). unfold dstep.
        rewrite Nat2N.inj_succ, N.pow_succ_r'.
        pose proof (N.div_mod n 10 ltac:(lia)) as DM.
        set (q := n / 10) in *. set (m := n mod 10) in *. set (P := 10 ^ N.of_nat (length acc)) in *.
        assert (E2 : n * P = (10 * q + m) * P) by (f_equal; exact DM).
        rewrite E2. lia.
      * rewrite Nat2N.inj_succ, N.pow_succ_r' in Hn. apply N.div_lt_upper_bound; lia.
Qed.

Lemma size_pow10 : forall n, n < 10 ^ N.of_nat (S (N.to_nat (N.size n))).
Proof.
  intro n. rewrite Nat2N.inj_succ, N2Nat.id.
  destruct n as [|p]; [cbn; lia|].
  pose proof (N.size_gt (N.pos p)) as H.
  assert (2 ^ N.size (N.pos p) <= 10 ^ N.size (N.pos p)) by (apply N.pow_le_mono_l; lia).
  assert (10 ^ N.size (N.pos p) <= 10 ^ N.succ (N.size (N.pos p))) by (apply N.pow_le_mono_r; lia).
  lia.
Qed.

Lemma digits_value : forall n, N_of_digits 10 (digits_of_N n) = n.
Proof.
  intro n. unfold N_of_digits, digits_of_N.
  change (fun a d : N => a * 10 + d) with dstep.
  rewrite digits_aux_value by apply size_pow10. cbn [length fold_left].
  change (N.of_nat 0) with 0. rewrite N.pow_0_r, N.mul_1_r, N.add_0_r. reflexivity.
Qed.

Lemma map_inj_gen : forall {A B : Type} (f : A -> B), (forall x y, f x = f y -> x = y) ->
  forall l1 l2, map f l1 = map f l2 -> l1 = l2.
Proof.
  intros A B f Hf. induction l1 as [|a l1 IH]; intros [|b l2] H; cbn [map] in H; try discriminate; [reflexivity|].
  injection H as H1 H2. f_equal; [apply Hf; exact H1|apply IH; exact H2].
Qed.
Lemma map_add48_inj : forall l1 l2 : list N, map (fun d => 48 + d) l1 = map (fun d => 48 + d) l2 -> l1 = l2.
Proof. apply map_inj_gen. intros x y H. lia. Qed.

Lemma cons_inj_tl : forall {A : Type} (a b : A) l l', a :: l = b :: l' -> l = l'.
Proof. intros A a b l l' H. injection H as _ H. exact H. Qed.

Theorem sym_name_inj : forall a b, sym_name a = sym_name b -> a = b.
Proof.
  intros a b H. unfold sym_name in H. apply cons_inj_tl in H. apply map_add48_inj in H.
  rewrite <- (digits_value a), <- (digits_value b), H. reflexivity.
Qed.

Lemma ESym_inj : forall a b, ESym a = ESym b -> a = b.
Proof. intros a b H. injection H as H. exact H. Qed.
Lemma sym_x_inj : forall a b, sym_x a = sym_x b -> a = b.
Proof. intros a b H. unfold sym_x in H. apply ESym_inj in H. apply sym_name_inj. exact H. Qed.
