(* C37 -- find_repeated collects EVERY Symbol of the inputs into excluded_symbols
   (the hypothesis [excl_complete] of C37_tree_cse_acyclic / C37_tree_cse_faithful_guarded), for
   inputs that are well-formed (wf, C01/C02), tree_ok (C39: no zero coefficient, distinct hashes
   inside one Add dictionary) and contain no Subs node (whose get_args are not its subterms).
   Since find_repeated does not revisit a subexpression that RCPBasicKeyLess identifies with an
   earlier one, this needs: equivalent under RCPBasicKeyLess => eq (C02, for wf trees), eq trees
   have the same Symbols (C39: eqb_occn), and a Symbol of a node is a Symbol of one of its
   get_args (C39: occn_arg_down).
   Consequence: the replacement symbols of tree_cse do not occur in the inputs (cse_fresh). *)
From SE Require Export C37.CseSem.
From SE Require Import Expr.CmpProofs Expr.HashProofs Expr.Unfold C39.ArgsDown C39.OccProofs.
From Coq Require Import Lia.
Local Open Scope N_scope.

Lemma nosubs_args : forall e a, any_node is_subs e = false -> In a (get_args e) -> any_node is_subs a = false.
Proof. apply (any_args is_subs (fun _ => false)); try reflexivity. intros c d _. split; reflexivity. Qed.

Lemma wf_split : forall e, wf e = true <-> wf_struct e = true /\ codes_ok e = true.
Proof. intro e. unfold wf. apply andb_true_iff. Qed.

Lemma wf_pow_intro : forall b x, wf b = true -> wf x = true -> wf (EPow b x) = true.
Proof.
  intros b x Hb Hx. apply wf_split in Hb. apply wf_split in Hx. destruct Hb as [B1 B2]. destruct Hx as [X1 X2].
  apply wf_split. split.
  - cbn [wf_struct]. rewrite B1, X1. reflexivity.
  - cbn [codes_ok]. rewrite B2, X2. reflexivity.
Qed.
Lemma wf_mul_intro : forall v d, num_wf v = true ->
  (forall q, In q d -> wf (fst q) = true /\ wf (snd q) = true) -> wf (EMul v d) = true.
Proof.
  intros v d Hv Hd. apply wf_split. split.
  - cbn [wf_struct]. rewrite Hv. cbn [andb]. apply forallb_forall. intros q Hq.
    destruct (Hd q Hq) as [A B]. apply wf_split in A. apply wf_split in B. destruct A as [A _]. destruct B as [B _]. rewrite A, B. reflexivity.
  - cbn [codes_ok]. apply andb_true_iff. split; [reflexivity|]. apply forallb_forall. intros q Hq.
    destruct (Hd q Hq) as [A B]. apply wf_split in A. apply wf_split in B. destruct A as [_ A]. destruct B as [_ B]. rewrite A, B. reflexivity.
Qed.
Lemma wf_args : forall e a, wf e = true -> In a (get_args e) -> wf a = true.
Proof.
  apply (args_closed (fun e => wf e = true) (fun n => num_wf n = true)).
  - intros n Hn. rewrite wf_num. exact Hn.
  - reflexivity.
  - reflexivity.
  - exact children_wf.
  - intros c d W. destruct (wf_add _ _ W) as (Hc & Hd & _). split; [exact Hc|].
    intros k v Hin. apply (Hd _ Hin).
  - intros c d W. exact (wf_coef _ W).
  - exact wf_pow_intro.
  - intros v d Hv Hd. apply wf_mul_intro; [exact Hv|]. intros [k x] Hq.
    split; apply Hd; [eapply in_flat_l|eapply in_flat_r]; exact Hq.
Qed.

Lemma set_equiv_eqb : forall a b, wf a = true -> wf b = true ->
  set_equiv (mk_hx a) (mk_hx b) = true -> expr_eqb a b = true.
Proof.
  intros a b Wa Wb H. apply set_equiv_iff in H. cbn [mk_hx fst snd] in H. destruct H as (_ & [E1|C1] & H2); [exact E1|].
  destruct H2 as [E2|C2]; [exact (expr_eqb_sym b a Wb Wa E2)|].
  pose proof (cmp_antisym a b Wa Wb) as AS. pose proof (expr_cmp_range a b) as R. unfold in_range in R.
  apply (cmp_eq_iff a b Wa Wb). lia.
Qed.

(* a Symbol leaf is an occurrence (C39's notion, every occurrence counts) *)
(* the converse of CseFlow.syms_child *)
Lemma syms_down : forall e n, In n (syms e) -> e = ESym n \/ exists c, In c (children e) /\ In n (syms c).
Proof.
  intros e n Hn. set (P := fun c => In n (syms c)).
  destruct e as [nu|nm|nm idx|nm|co d|co d|pb px|code fa|code fa fb|code l|nm l|code la lb|da dxs|sa sd|pl|bb|is ie lo ro|code];
    cbn [syms] in Hn; cbn [children]; try (destruct Hn; fail);
    [destruct Hn as [<-|[]]; left; reflexivity|right..].
  - apply in_flat_map in Hn. destruct Hn as ([k v] & Hin & Hn). apply (ex_in_fst P). eauto.
  - apply in_flat_map in Hn. destruct Hn as ([k v] & Hin & Hn). apply in_app_or in Hn. apply (ex_in_flat P). eauto.
  - apply in_app_or in Hn. apply (ex_in_2 P). exact Hn.
  - apply (ex_in_1 P). exact Hn.
  - apply in_app_or in Hn. apply (ex_in_2 P). exact Hn.
  - apply in_flat_map in Hn. exact Hn.
  - apply in_flat_map in Hn. exact Hn.
  - apply in_app_or in Hn. apply (ex_in_2 P). exact Hn.
  - apply in_app_or in Hn. apply (ex_in_cons P). destruct Hn as [Hn|Hn]; [left; exact Hn|right].
    apply in_flat_map in Hn. exact Hn.
  - apply in_app_or in Hn. apply (ex_in_cons P). destruct Hn as [Hn|Hn]; [left; exact Hn|right].
    apply in_flat_map in Hn. destruct Hn as ([k v] & Hin & Hn). apply in_app_or in Hn. apply (ex_in_flat P). eauto.
  - apply in_flat_map in Hn. destruct Hn as ([k v] & Hin & Hn). apply in_app_or in Hn. apply (ex_in_flat P). eauto.
  - apply in_app_or in Hn. apply (ex_in_2 P). exact Hn.
Qed.

Lemma occ_child_none : forall s e c, In c (children e) -> occ_child B_none s e c.
Proof.
  intros s e c H. destruct e; try exact H; cbn [occ_child children] in *.
  destruct H as [<-|H]; [left; split; [reflexivity|discriminate]|right].
  apply in_flat_map in H. destruct H as ([k v] & Hin & [<-|[<-|[]]]); [left; split; [reflexivity|]|right]; eauto.
Qed.

Lemma syms_occurs : forall k e, (size e <= k)%nat -> forall n, In n (syms e) -> occurs B_none (ESym n) e.
Proof.
  induction k as [|k IH]; intros e Hs n Hn; [pose proof (size_pos e); lia|].
  destruct (syms_down e n Hn) as [->|(c & Hc & Hnc)]; [apply O_self; reflexivity|].
  eapply occurs_child; [apply occ_child_none; exact Hc|]. apply IH; [|exact Hnc].
  pose proof (children_size e c Hc). lia.
Qed.

Definition input_ok (e : expr) : bool := wf e && tree_ok e && negb (any_node is_subs e).
Definition P (e : expr) : Prop := wf e = true /\ tree_ok e = true /\ any_node is_subs e = false.
Lemma input_ok_P : forall e, input_ok e = true -> P e.
Proof.
  intros e H. unfold input_ok in H. apply andb_true_iff in H. destruct H as [H H3].
  apply andb_true_iff in H. destruct H as [H1 H2]. apply negb_true_iff in H3. repeat split; assumption.
Qed.
Lemma P_args : forall e a, P e -> In a (get_args e) -> P a.
Proof.
  intros e a (H1 & H2 & H3) Hin. repeat split;
    [eapply wf_args|eapply tree_ok_args|eapply nosubs_args]; eassumption.
Qed.

Lemma hset_mem_incl : forall a s s', incl s s' -> hset_mem a s = true -> hset_mem a s' = true.
Proof.
  intros a s s' Hi H. unfold hset_mem in *. apply existsb_exists in H. destruct H as (h & Hh & He).
  apply existsb_exists. exists h. split; [apply Hi; exact Hh|exact He].
Qed.
Lemma hset_add_incl : forall x s, incl s (hset_add x s).
Proof. intros x s h Hh. unfold hset_add. destruct (hset_mem x s); [exact Hh|right; exact Hh]. Qed.
Lemma set_equiv_refl : forall x, wf x = true -> set_equiv (mk_hx x) (mk_hx x) = true.
Proof. intros x W. apply set_equiv_iff. cbn [mk_hx fst snd]. rewrite (expr_eqb_refl x W). auto. Qed.
Lemma hset_mem_add_self : forall x s, wf x = true -> hset_mem x (hset_add x s) = true.
Proof.
  intros x s W. unfold hset_add. destruct (hset_mem x s) eqn:E; [exact E|].
  unfold hset_mem. cbn [existsb]. rewrite (set_equiv_refl x W). reflexivity.
Qed.

Definition covered (seen : hset) (a : expr) : Prop :=
  CseModel.is_number a = true \/ is_bool_atom a = true \/ hset_mem a seen = true.
Lemma covered_incl : forall s s' a, incl s s' -> covered s a -> covered s' a.
Proof. intros s s' a Hi [H|[H|H]]; [left; exact H|right; left; exact H|right; right; eapply hset_mem_incl; eassumption]. Qed.

(* a stored key: a tree of the class, all of whose arguments are numbers, boolean atoms or
   (equivalent to) stored keys, and which is excluded when it is a Symbol *)
Definition NEW (h : hx) (st : fr_state) : Prop :=
  (exists t, h = mk_hx t /\ P t) /\
  (forall a, In a (get_args (snd h)) -> covered (fr_seen st) a) /\
  (is_symbol (snd h) = true -> hset_mem (snd h) (fr_excl st) = true).
Lemma NEW_mono : forall h st st', incl (fr_seen st) (fr_seen st') -> incl (fr_excl st) (fr_excl st') ->
  NEW h st -> NEW h st'.
Proof.
  intros h st st' I1 I2 (H1 & H2 & H3). split; [exact H1|]. split.
  - intros a Ha. eapply covered_incl; [exact I1|apply H2; exact Ha].
  - intro Hs. eapply hset_mem_incl; [exact I2|apply H3; exact Hs].
Qed.

Definition fr_post (st st' : fr_state) : Prop :=
  incl (fr_seen st) (fr_seen st') /\ incl (fr_excl st) (fr_excl st') /\
  (forall h, In h (fr_seen st') -> In h (fr_seen st) \/ NEW h st').

Lemma fr_post_refl : forall st, fr_post st st.
Proof. intro st. split; [apply incl_refl|]. split; [apply incl_refl|]. intros h Hh. left. exact Hh. Qed.
Lemma fr_post_trans : forall a b c, fr_post a b -> fr_post b c -> fr_post a c.
Proof.
  intros a b c (A1 & A2 & A3) (B1 & B2 & B3). split; [eapply incl_tran; eassumption|]. split; [eapply incl_tran; eassumption|].
  intros h Hh. destruct (B3 h Hh) as [Q|Q]; [|right; exact Q].
  destruct (A3 h Q) as [Q'|Q']; [left; exact Q'|right]. eapply NEW_mono; eassumption.
Qed.

Section FR.
  Variable f : nat.
  Hypothesis IH : forall st e st', find_repeated [] f st e = Ok st' -> P e ->
    fr_post st st' /\ covered (fr_seen st') e.

  Lemma fr_list : forall l st st', foldM (find_repeated [] f) l st = Ok st' -> (forall a, In a l -> P a) ->
    fr_post st st' /\ (forall a, In a l -> covered (fr_seen st') a).
  Proof using IH.
    induction l as [|a l IHl]; intros st st' H Hl; cbn [foldM] in H.
    - inv_ok H. split; [apply fr_post_refl|intros a []].
    - stepn H st1 E1. destruct (IH _ _ _ E1 (Hl a (or_introl eq_refl))) as (Q1 & C1).
      destruct (IHl _ _ H (fun b Hb => Hl b (or_intror Hb))) as (Q2 & C2).
      split; [eapply fr_post_trans; eassumption|].
      intros b [<-|Hb]; [|apply C2; exact Hb]. eapply covered_incl; [apply Q2|exact C1].
  Qed.
End FR.

Lemma find_repeated_post : forall f st e st', find_repeated [] f st e = Ok st' -> P e ->
  fr_post st st' /\ covered (fr_seen st') e.
Proof.
  induction f as [|f IH]; intros st e st' H HP; cbn [find_repeated] in H; [discriminate|].
  destruct (CseModel.is_number e || is_bool_atom e) eqn:Eat.
  { inv_ok H. split; [apply fr_post_refl|]. apply orb_true_iff in Eat. destruct Eat as [Q|Q]; [left; exact Q|right; left; exact Q]. }
  set (st1 := if is_symbol e then mkFR (fr_seen st) (fr_elim st) (hset_add e (fr_excl st)) else st) in *.
  assert (S1 : fr_seen st1 = fr_seen st) by (unfold st1; destruct (is_symbol e); reflexivity).
  assert (X1 : incl (fr_excl st) (fr_excl st1)).
  { unfold st1; destruct (is_symbol e); [cbn [fr_excl]; apply hset_add_incl|apply incl_refl]. }
  assert (Y1 : is_symbol e = true -> hset_mem e (fr_excl st1) = true).
  { intro Hs. unfold st1. rewrite Hs. cbn [fr_excl]. apply hset_mem_add_self. apply HP. }
  destruct (hset_mem e (fr_seen st1)) eqn:Em.
  - inv_ok H. cbn [fr_seen fr_excl]. split.
    + split; [rewrite S1; apply incl_refl|]. split; [exact X1|]. cbn [fr_seen]. intros h Hh. left. rewrite <- S1. exact Hh.
    + right. right. exact Em.
  - unfold opt_or_self in H. cbn [bmap_find] in H.
    set (st2 := mkFR (hset_add e (fr_seen st1)) (fr_elim st1) (fr_excl st1)) in *.
    destruct (fr_list f IH _ _ _ H (fun a Ha => P_args e a HP Ha)) as ((Q1 & Q2 & Q3) & C).
    assert (I12 : incl (fr_seen st) (fr_seen st2)).
    { unfold st2. cbn [fr_seen]. rewrite <- S1. apply hset_add_incl. }
    assert (Hin : In (mk_hx e) (fr_seen st2)).
    { unfold st2. cbn [fr_seen]. unfold hset_add. rewrite Em. left. reflexivity. }
    split.
    + split; [eapply incl_tran; eassumption|]. split; [eapply incl_tran; [exact X1|exact Q2]|].
      intros h Hh. destruct (Q3 h Hh) as [Q|Q]; [|right; exact Q].
      unfold st2 in Q. cbn [fr_seen] in Q. unfold hset_add in Q. rewrite Em in Q. destruct Q as [<-|Q].
      * right. split; [exists e; split; [reflexivity|exact HP]|]. cbn [mk_hx snd]. split; [exact C|].
        intro Hs. eapply hset_mem_incl; [exact Q2|]. unfold st2. cbn [fr_excl]. apply Y1. exact Hs.
      * left. rewrite <- S1. exact Q.
    + right. right. unfold hset_mem. apply existsb_exists. exists (mk_hx e). split; [apply Q1; exact Hin|].
      apply set_equiv_refl. apply HP.
Qed.

Lemma occ_excluded : forall fr, (forall h, In h (fr_seen fr) -> NEW h fr) ->
  forall n m a, P a -> covered (fr_seen fr) a -> occn B_none (ESym n) m a ->
    hset_mem (ESym n) (fr_excl fr) = true.
Proof.
  intros fr HN n. induction m as [|m IHm]; intros a HP Hc Ho; [destruct Ho|].
  destruct Hc as [Hc|[Hc|Hc]].
  - destruct a; try discriminate. exfalso. eapply occn_num. exact Ho.
  - destruct a; try discriminate. cbn [occn] in Ho. destruct Ho as [[_ Q]|[]]. discriminate.
  - unfold hset_mem in Hc. apply existsb_exists in Hc. destruct Hc as (h & Hh & He).
    destruct (HN h Hh) as ((t & -> & HPt) & Hcl & Hsx). cbn [mk_hx snd] in Hcl, Hsx.
    assert (Heq : expr_eqb a t = true) by (apply set_equiv_eqb; [apply HP|apply HPt|exact He]).
    assert (Hot : occn B_none (ESym n) (S m) t).
    { apply (eqb_occn B_none eq_refl (S m) a t (ESym n)); [apply HP|apply HPt|exact Heq|exact Ho]. }
    destruct (is_symbol t) eqn:Est.
    + destruct t; try discriminate. cbn [occn] in Hot. destruct Hot as [[_ Q]|[]].
      rewrite <- Q. apply Hsx. reflexivity.
    + pose proof HPt as (_ & Tt & St). apply any_node_false in St. destruct St as [St _].
      destruct (occn_arg_down B_none (ESym n) m t eq_refl Tt St Hot) as [[_ Q]|(u & Hu & Hou)];
        [rewrite Q in Est; discriminate|].
      apply (IHm u); [eapply P_args; eassumption|apply Hcl; exact Hu|exact Hou].
Qed.

Theorem excl_complete_holds : forall fuel es excl,
  (forall e, In e es -> input_ok e = true) ->
  tree_cse_excluded fuel [] es = Ok excl ->
  excl_complete excl es = true.
Proof.
  intros fuel es excl Hok H. unfold tree_cse_excluded in H. stepn H fr E. inv_ok H.
  assert (HP : forall e, In e es -> P e) by (intros e He; apply input_ok_P; apply Hok; exact He).
  destruct (fr_list fuel (find_repeated_post fuel) _ _ _ E HP) as ((_ & _ & Q3) & C).
  assert (HN : forall h, In h (fr_seen fr) -> NEW h fr).
  { intros h Hh. destruct (Q3 h Hh) as [[]|Q]. exact Q. }
  apply excl_complete_iff. intros e He n Hn.
  pose proof (syms_occurs (size e) e (le_n _) n Hn) as Ho. apply occurs_iff_occn in Ho. destruct Ho as (m & Ho).
  eapply occ_excluded; [exact HN|apply HP; exact He|apply C; exact He|exact Ho].
Qed.

(* consequences: the theorems without the per-instance hypothesis *)
(* cse_fresh: the replacement symbols do not occur in the inputs *)
Theorem tree_cse_fresh : forall C fuel es reps red,
  (forall e, In e es -> input_ok e = true) ->
  tree_cse_with C fuel [] es = Ok (reps, red) ->
  forall s r, In (s, r) reps -> exists n, s = ESym n /\ forall e, In e es -> ~ In n (syms e).
Proof.
  intros C fuel es reps red Hok H s r Hin.
  destruct (tree_cse_fresh_names _ _ _ _ _ _ H) as (excl & ks & HX & Hm & _ & Hnot).
  pose proof (excl_complete_holds _ _ _ Hok HX) as HC.
  assert (Hs : In s (map fst reps)) by (apply in_map_iff; exists (s, r); auto).
  rewrite Hm in Hs. apply in_map_iff in Hs. destruct Hs as (k & <- & Hk).
  exists (sym_name k). split; [reflexivity|]. intros e He Hn.
  pose proof (proj1 (excl_complete_iff _ _) HC e He _ Hn). specialize (Hnot k Hk). unfold sym_x in Hnot. congruence.
Qed.

Theorem tree_cse_acyclic_wf : forall C fuel es reps red,
  ctors_syms C -> (forall e, In e es -> input_ok e = true) ->
  tree_cse_with C fuel [] es = Ok (reps, red) -> defined_before reps.
Proof.
  intros C fuel es reps red CS Hok H.
  destruct (tree_cse_fresh_names _ _ _ _ _ _ H) as (excl & ks & HX & _).
  exact (proj1 (tree_cse_flow C fuel es reps red excl CS H HX (excl_complete_holds _ _ _ Hok HX))).
Qed.

Theorem tree_cse_faithful_wf : forall C D (sem : (list N -> D) -> expr -> D) (ok : expr -> Prop),
  sem_laws C D sem ok -> ctors_syms C ->
  forall fuel es reps red r0,
  (forall e, In e es -> ok e) -> (forall e, In e es -> input_ok e = true) ->
  tree_cse_with C fuel [] es = Ok (reps, red) ->
  cse_guard es = false ->
  Forall2 (fun v e => sem (eval_reps sem reps r0) v = sem r0 e) red es.
Proof.
  intros C D sem ok SL CS fuel es reps red r0 Hok Hin H HG.
  destruct (tree_cse_fresh_names _ _ _ _ _ _ H) as (excl & ks & HX & _).
  eapply tree_cse_faithful; try eassumption. eapply excl_complete_holds; eassumption.
Qed.
