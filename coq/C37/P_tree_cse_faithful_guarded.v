(* C37 obligation (cse_faithful, guarded): tree_cse with empty opt_subs is a faithful factoring
   under EVERY compositional semantics.  For any constructors C that do not invent Symbols and any
   interpretation sem : valuation -> tree -> D under which (sem_laws) a Symbol means its value, the
   meaning depends only on the Symbols of the tree, trees identified by the library's hash + eq
   mean the same (on a class `ok` of trees closed under get_args, e.g. the well-formed ones), and
   each constructor is compositional w.r.t. the get_args of the node it rebuilds:
   evaluating the replacement list FRONT TO BACK (x_k := meaning of its right-hand side) and then
   the reduced expressions yields exactly the meanings of the inputs -- equivalently,
   substituting the replacements back last to first reproduces the inputs up to sem.
   Guard: cse_guard es = false (no FunctionSymbol named add/mul/pow: the defect refuted in
   P_funsym_name_clash_refuted.v; no Piecewise: sem_laws says nothing of how it is rebuilt).  excl_complete is checked per instance by the extracted model. *)
From SE Require Import C37.CseSem.
Theorem C37_tree_cse_faithful_guarded :
  forall (C : ctors) (D : Type) (sem : (list N -> D) -> expr -> D) (ok : expr -> Prop),
    sem_laws C D sem ok -> ctors_syms C ->
    forall (fuel : nat) (es : list expr) reps red excl (r0 : list N -> D),
      (forall e, In e es -> ok e) ->
      tree_cse_with C fuel [] es = Ok (reps, red) ->
      tree_cse_excluded fuel [] es = Ok excl ->
      excl_complete excl es = true ->
      cse_guard es = false ->
      Forall2 (fun v e => sem (eval_reps sem reps r0) v = sem r0 e) red es.
Proof. exact tree_cse_faithful. Qed.
Print Assumptions C37_tree_cse_faithful_guarded.
