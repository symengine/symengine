(* C37 regression obligation for the fix "cse replaced repeated Boolean subexpressions by symbols":
   on two Piecewise sharing the condition x < y the model -- which transcribes the fixed find_repeated -- returns no replacement
   and the inputs unchanged, and the proved checker accepts that output. *)
From SE Require Import C37.CseRefuted.
Theorem C37_piecewise_condition_fixed :
  tree_cse_lib [] wit_pw = Ok ([], wit_pw) /\ check_cse wit_pw [] wit_pw wit_pw = true.
Proof. exact piecewise_condition_fixed. Qed.
Print Assumptions C37_piecewise_condition_fixed.
