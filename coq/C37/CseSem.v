(* C37 -- faithfulness of tree_cse (empty opt_subs), stated for EVERY compositional semantics.

   Let [sem rho e : D] be any interpretation of expression trees under a valuation rho of the
   Symbols, such that ([sem_laws])
     - a Symbol means its value, and the meaning of a tree depends only on the Symbols in it,
     - expressions that the library's unordered_map identifies (same hash, eq) mean the same,
     - each constructor the rebuild calls is compositional: built from arguments that mean the
       same as the arguments (get_args) of a node, the result means the same as the node.
   Then, evaluating the replacement list front to back (x_k := meaning of its right-hand side
   under the valuation extended so far) and then the reduced expressions gives exactly the
   meanings of the inputs: [tree_cse_faithful].  With D = trees and sem = "substitute and
   re-canonicalise" this is the back-substitution statement of the property; with D = numbers
   it is "the factored program computes the same values".

   Guard [cse_guard es = false]: no FunctionSymbol named add / mul / pow and no Piecewise in the
   inputs (the name clash is a defect, CseRefuted.v; a Piecewise is rebuilt through c_pw and
   c_eq_true, for which [sem_laws] has no law).  Hypotheses checked per instance by the extracted
   model: [excl_complete].  Constructors must not invent Symbols ([ctors_syms]). *)
From SE Require Export C37.CseFlow.
From SE Require Import C39.QueryLemmas.
From Coq Require Import Lia.
Local Open Scope N_scope.

Lemma guard_args : forall e a, any_node guard_node e = false -> In a (get_args e) -> any_node guard_node a = false.
Proof. apply (any_args guard_node (fun _ => false)); try reflexivity. intros c d _. split; reflexivity. Qed.

Section Sem.
  Variable C : ctors.
  Variable D : Type.
  Variable sem : (list N -> D) -> expr -> D.
  (* the class of input trees for which the semantics respects the library's eq (e.g. well-formed
     trees, C01); it must be inherited by get_args *)
  Variable ok : expr -> Prop.

  Definition sem_args (r' r : list N -> D) (l' l : list expr) : Prop :=
    Forall2 (fun a' a => sem r' a' = sem r a) l' l.

  Record sem_laws : Prop := mkSL {
    sl_sym : forall r n, sem r (ESym n) = r n;
    sl_ext : forall r r' e, (forall n, In n (syms e) -> r n = r' n) -> sem r e = sem r' e;
    sl_ok_args : forall e a, ok e -> In a (get_args e) -> ok a;
    sl_key : forall r a b, ok a -> ok b -> (hash b =? hash a) && expr_eqb a b = true -> sem r a = sem r b;
    sl_add : forall r r' co d l v, c_add C l = Ok v -> sem_args r' r l (get_args (EAdd co d)) -> sem r' v = sem r (EAdd co d);
    sl_mul : forall r r' co d l v, c_mul C l = Ok v -> sem_args r' r l (get_args (EMul co d)) -> sem r' v = sem r (EMul co d);
    sl_pow : forall r r' b x b' x' v, c_pow C b' x' = Ok v -> sem r' b' = sem r b -> sem r' x' = sem r x ->
               sem r' v = sem r (EPow b x);
    sl_f1 : forall r r' c a a' v, c_f1 C c a' = Ok v -> sem r' a' = sem r a -> sem r' v = sem r (EF1 c a);
    sl_f2 : forall r r' c a b a' b' v, c_f2 C c a' b' = Ok v -> sem r' a' = sem r a -> sem r' b' = sem r b ->
               sem r' v = sem r (EF2 c a b);
    sl_fn : forall r r' c l l' v, c_fn C c l' = Ok v -> sem_args r' r l' l -> sem r' v = sem r (EFN c l);
    sl_funsym : forall r r' nm l l', sem_args r' r l' l -> sem r' (EFunSym nm l') = sem r (EFunSym nm l)
  }.

  Hypothesis SL : sem_laws.
  (* under the guard, what a visit constructs from arguments that mean the same means the same *)
  Lemma rebuilt_sem : forall r r' e y v, any_node guard_node e = false -> rebuilt C e y v ->
    sem_args r' r y (get_args e) -> sem r' v = sem r e.
  Proof using SL.
    intros r r' e y v Hg H S. apply any_node_false in Hg. destruct Hg as [Hg _].
    (* the guard leaves neither the reserved names nor Piecewise *)
    destruct H as [co d y v E|co d y v E|b x b' x' v E|c a a' v E|c a b a' b' v E|c l y v E
                   |l y v E|l y v E|l a b t v E|nm l y|l y pl v Hp E]; try discriminate Hg; cbn [get_args] in S.
    - eapply (sl_add SL); eassumption.
    - eapply (sl_mul SL); eassumption.
    - inversion S as [|? ? ? ? S1 S']; subst. inversion S' as [|? ? ? ? S2 _]; subst. eapply (sl_pow SL); eassumption.
    - inversion S as [|? ? ? ? S1 _]; subst. eapply (sl_f1 SL); eassumption.
    - inversion S as [|? ? ? ? S1 S']; subst. inversion S' as [|? ? ? ? S2 _]; subst. eapply (sl_f2 SL); eassumption.
    - eapply (sl_fn SL); eassumption.
    - apply (sl_funsym SL). exact S.
  Qed.

  Hypothesis CS : ctors_syms C.
  Variable env : rb_env.
  Hypothesis no_opt : env_opt env = [].
  Let excl := env_excl env.
  Variable r0 : list N -> D.          (* the valuation of the input Symbols *)

  Definition upd (r : list N -> D) (n : list N) (d : D) : list N -> D :=
    fun m => if bytes_eqb m n then d else r m.

  (* the valuation after the replacements of a state (list: last pushed first) *)
  Fixpoint val (L : list (expr * expr)) : list N -> D :=
    match L with
    | [] => r0
    | (ESym n, r) :: t => upd (val t) n (sem (val t) r)
    | _ :: t => val t
    end.

  Definition nonexcl (L : list (expr * expr)) : Prop := forall s r, In (s, r) L -> hset_mem s excl = false.

  Lemma val_agree : forall new old n, nonexcl new ->
    (hset_mem (ESym n) excl = true \/ ((exists r, In (ESym n, r) old) /\ NoDup (map fst (new ++ old)))) ->
    val (new ++ old) n = val old n.
  Proof.
    induction new as [|[s r] t IH]; intros old n Hne Hn; cbn [app]; [reflexivity|].
    assert (Ht : nonexcl t) by (intros s' r' H'; apply (Hne s' r'); right; exact H').
    assert (IH' : val (t ++ old) n = val old n).
    { apply IH; [exact Ht|]. destruct Hn as [Hn|[Hn ND]]; [left; exact Hn|right]. split; [exact Hn|].
      cbn [app map] in ND. inversion ND. assumption. }
    destruct s; cbn [val]; try exact IH'.
    unfold upd. destruct (bytes_eqb n name) eqn:E; [|exact IH'].
    exfalso. apply bytes_eqb_eq in E. subst name.
    pose proof (Hne (ESym n) r (or_introl eq_refl)) as Hs.
    destruct Hn as [Hn|[(r' & Hr') ND]]; [congruence|].
    cbn [app map fst] in ND. inversion ND as [|? ? Hnotin _]. subst. apply Hnotin.
    apply in_map_iff. exists (ESym n, r'). split; [reflexivity|]. apply in_or_app. right. exact Hr'.
  Qed.

  (* facts carried by the chain of CseProofs.v *)
  Lemma chain_facts : forall L lo hi, chain excl L lo hi -> nonexcl L /\ NoDup (map fst L).
  Proof.
    intros L lo hi H. destruct (chain_keys _ _ _ _ H) as (ks & Hm & Hs & Hall). split.
    - intros s r Hin. assert (Hk : In s (map fst L)) by (apply in_map_iff; exists (s, r); auto).
      rewrite Hm in Hk. apply in_map_iff in Hk. destruct Hk as (k & <- & Hk). apply Hall. exact Hk.
    - rewrite Hm. apply NoDup_map_sym_x. apply (sorted_NoDup (fun a b => b < a)); [|exact Hs].
      intro a. apply N.lt_irrefl.
  Qed.

  Definition chained (st : rb_state) : Prop := chain excl (rb_reps st) 0 (rb_next st).

  Lemma chained_ext : forall st st', chained st -> ext excl st st' -> chained st'.
  Proof.
    intros st st' H (new & E & Hc). unfold chained. rewrite E. eapply chain_app; eassumption.
  Qed.

  (* an expression that is good in st keeps its meaning when the state is extended *)
  Lemma sem_stable : forall st st' v, chained st' -> ext excl st st' -> good env st v ->
    sem (val (rb_reps st')) v = sem (val (rb_reps st)) v.
  Proof using SL.
    intros st st' v Hch (new & E & Hc) G. rewrite E. apply (sl_ext SL). intros n Hn.
    unfold chained in Hch. rewrite E in Hch. destruct (chain_facts _ _ _ Hch) as [Hne ND].
    apply val_agree.
    - intros s r Hin. apply (Hne s r). apply in_or_app. left. exact Hin.
    - destruct (G n Hn) as [Q|Q]; [left; exact Q|right]. split; [exact Q|exact ND].
  Qed.

  (* an original subtree means the same under every state valuation *)
  Lemma sem_orig : forall st e, chained st -> excl_ok env e -> sem (val (rb_reps st)) e = sem r0 e.
  Proof using SL.
    intros st e Hch He. apply (sl_ext SL). intros n Hn.
    destruct (chain_facts _ _ _ Hch) as [Hne _].
    rewrite <- (app_nil_r (rb_reps st)). apply (val_agree (rb_reps st) [] n Hne). left. apply He. exact Hn.
  Qed.

  Definition subs_sem (st : rb_state) : Prop :=
    forall o s, In (o, s) (rb_subs st) -> ok o /\ sem (val (rb_reps st)) s = sem r0 o.
  Definition K (st : rb_state) : Prop := J env st /\ chained st /\ subs_sem st.
  Definition pre (e : expr) : Prop := (excl_ok env e /\ any_node guard_node e = false) /\ ok e.

  Definition ap_sem (ap : rb_state -> expr -> res ares) : Prop :=
    forall st e x, ap st e = Ok x -> K st -> pre e ->
      K (fst x) /\ good env (fst x) (fst (snd x)) /\ ext excl st (fst x) /\
      sem (val (rb_reps (fst x))) (fst (snd x)) = sem r0 e.

  Lemma ext_grows : forall st st', ext excl st st' -> grows st st'.
  Proof. intros st st' (new & E & _). exists new. exact E. Qed.

  Lemma pre_args : forall e a, pre e -> In a (get_args e) -> pre a.
  Proof using SL.
    intros e a [[H1 H2] H3] Hin. split; [split; [eapply excl_ok_args; eassumption|eapply guard_args; eassumption]|].
    eapply (sl_ok_args SL); eassumption.
  Qed.

  Section Visit.
    Variable ap : rb_state -> expr -> res ares.
    Hypothesis AP : ap_sem ap.
    Hypothesis AP_ok : ap_ok env ap.

    Lemma apply_list_sem : forall l st x, apply_list ap st l = Ok x -> K st -> (forall a, In a l -> pre a) ->
      K (fst x) /\ (forall v, In v (snd x) -> good env (fst x) v) /\ ext excl st (fst x) /\
      sem_args (val (rb_reps (fst x))) r0 (snd x) l.
    Proof using AP SL.
      induction l as [|a l IH]; intros st x H HK Hl; cbn [apply_list] in H.
      - inv_ok H. cbn [fst snd]. split; [exact HK|]. split; [intros v []|]. split; [apply ext_refl|constructor].
      - stepn H r1 E1. stepn H r2 E2. inv_ok H. cbn [fst snd].
        destruct (AP _ _ _ E1 HK (Hl a (or_introl eq_refl))) as (K1 & G1 & X1 & S1).
        destruct (IH _ _ E2 K1 (fun b Hb => Hl b (or_intror Hb))) as (K2 & G2 & X2 & S2).
        split; [exact K2|]. split; [|split; [eapply ext_trans; eassumption|]].
        + intros v [<-|Hv]; [eapply good_grows; [apply ext_grows; exact X2|exact G1]|apply G2; exact Hv].
        + constructor; [|exact S2]. rewrite <- S1. apply sem_stable; [apply K2|exact X2|exact G1].
    Qed.

    Lemma rb_visit_sem : ap_sem (rb_visit C ap).
    Proof using AP AP_ok CS SL.
      intros st e x H HK He.
      assert (Hex : excl_ok env e) by apply He.
      (* the flow part of the conclusion is CseFlow's *)
      destruct (rb_visit_ok C CS env ap AP_ok st e x H (proj1 HK) Hex) as (_ & GX & _).
      destruct (rb_visit_inv C ap _ _ _ H) as [[Es Ev]|(y & E & Hv)].
      - rewrite Es, Ev in *. split; [exact HK|]. split; [exact GX|]. split; [apply ext_refl|].
        apply sem_orig; [apply HK|exact Hex].
      - destruct (apply_list_sem _ _ _ E HK (fun a Ha => pre_args _ a He Ha)) as (K1 & _ & X1 & S1).
        cbn [fst snd] in K1, X1, S1. split; [exact K1|]. split; [exact GX|]. split; [exact X1|].
        destruct Hv as [->|Hv]; [apply sem_orig; [apply K1|exact Hex]|].
        eapply rebuilt_sem; [apply He|exact Hv|exact S1].
    Qed.
  End Visit.

  Lemma rb_apply_sem : forall fuel, ap_sem (rb_apply C env fuel).
  Proof using CS SL no_opt.
    induction fuel as [|f IH]; intros st e x H HK He; [discriminate|].
    assert (Hex : excl_ok env e) by apply He.
    assert (Hoke : ok e) by apply He.
    (* the flow part of the invariant is CseFlow's *)
    destruct (rb_apply_ok C CS env no_opt (S f) st e x H (proj1 HK) Hex) as (JX & GX & _).
    destruct (rb_apply_inv _ _ _ _ _ _ H) as [->|[(s & EF & ->)|(e' & r1 & Ee & E1 & Hx)]]; cbn [fst snd] in *.
    { (* atom *) split; [exact HK|]. split; [exact GX|]. split; [apply ext_refl|].
      apply sem_orig; [apply HK|exact Hex]. }
    { (* substituted before *) split; [exact HK|]. split; [exact GX|]. split; [apply ext_refl|].
      destruct (bmap_find_key _ _ _ EF) as (k' & Hin & Hkey). destruct HK as (_ & _ & HS).
      destruct (HS _ _ Hin) as [Hok' Hs']. rewrite Hs'. symmetry. apply (sl_key SL); assumption. }
    rewrite (Ee no_opt) in E1.
    destruct (rb_visit_sem _ IH (rb_apply_ok C CS env no_opt f) _ _ _ E1 HK He) as (K1 & G1 & X1 & S1).
    destruct Hx as [(b & ->)|(s & k' & E2 & ->)]; cbn [fst snd] in *.
    - (* the rebuilt node *) split; [exact K1|]. split; [exact G1|]. split; [exact X1|exact S1].
    - (* a new symbol for the rebuilt node *)
      set (st2 := mkRB ((e, s) :: rb_subs (fst r1)) ((s, fst (snd r1)) :: rb_reps (fst r1)) k') in *.
      assert (X12 : ext excl (fst r1) st2) by exact (ext_push _ _ _ _ _ _ _ E2).
      apply next_symbol_spec in E2. destruct E2 as (j & Hs & _).
      destruct K1 as (J1 & C1 & SS1).
      assert (C2 : chained st2) by (eapply chained_ext; eassumption).
      assert (VS : sem (val (rb_reps st2)) s = sem r0 e).
      { unfold st2. cbn [rb_reps]. unfold sym_x in Hs. rewrite Hs. cbn [val]. rewrite (sl_sym SL). unfold upd.
        rewrite (proj2 (bytes_eqb_eq _ _) eq_refl). exact S1. }
      split; [|split; [exact GX|split; [eapply ext_trans; eassumption|exact VS]]].
      split; [exact JX|split; [exact C2|]].
      intros o s' Ho. unfold st2 in Ho. cbn [rb_subs] in Ho. destruct Ho as [Ho|Ho].
      + injection Ho as <- <-. split; [exact Hoke|exact VS].
      + destruct (SS1 _ _ Ho) as [Hok' Hs']. split; [exact Hok'|]. rewrite <- Hs'. apply sem_stable; [exact C2|exact X12|].
        exact (subs_ok_good _ _ _ _ (proj2 J1) Ho).
  Qed.

End Sem.

(* evaluate the replacement list front to back *)
Fixpoint eval_reps {D : Type} (sem : (list N -> D) -> expr -> D) (reps : list (expr * expr)) (r : list N -> D)
  : list N -> D :=
  match reps with
  | [] => r
  | (ESym n, rhs) :: t => eval_reps sem t (upd D r n (sem r rhs))
  | _ :: t => eval_reps sem t r
  end.

Lemma eval_reps_app : forall {D} (sem : (list N -> D) -> expr -> D) a b r,
  eval_reps sem (a ++ b) r = eval_reps sem b (eval_reps sem a r).
Proof.
  induction a as [|[s rhs] a IH]; intros b r; cbn [app eval_reps]; [reflexivity|].
  destruct s; apply IH.
Qed.

Lemma val_eval : forall {D} (sem : (list N -> D) -> expr -> D) r0 L,
  val D sem r0 L = eval_reps sem (rev L) r0.
Proof.
  induction L as [|[s rhs] t IH]; cbn [rev val]; [reflexivity|].
  rewrite eval_reps_app. cbn [eval_reps]. destruct s; rewrite <- ?IH; reflexivity.
Qed.

Theorem tree_cse_faithful : forall C D (sem : (list N -> D) -> expr -> D) (ok : expr -> Prop),
  sem_laws C D sem ok -> ctors_syms C ->
  forall fuel es reps red excl r0,
  (forall e, In e es -> ok e) ->
  tree_cse_with C fuel [] es = Ok (reps, red) ->
  tree_cse_excluded fuel [] es = Ok excl ->
  excl_complete excl es = true ->
  cse_guard es = false ->
  Forall2 (fun v e => sem (eval_reps sem reps r0) v = sem r0 e) red es.
Proof.
  intros C D sem ok SL CS fuel es reps red excl r0 Hok H HX HC HG.
  destruct (tree_cse_with_inv _ _ _ _ _ _ H) as (fr & x & HX' & E & -> & ->).
  rewrite HX in HX'. injection HX' as ->.
  set (env := mkEnv [] (fr_elim fr) (fr_excl fr)) in *.
  assert (Hes : forall e, In e es -> pre ok env e).
  { intros e He. split; [|apply Hok; exact He]. split.
    - exact (proj1 (excl_complete_iff _ _) HC e He).
    - unfold cse_guard in HG. eapply existsb_false_in; eassumption. }
  assert (K0 : K D sem ok env r0 rb_empty).
  { split; [split; [exact I|intros o s []]|]. split; [unfold chained; cbn [rb_empty rb_reps rb_next chain]; lia|intros o s []]. }
  destruct (apply_list_sem C D sem ok SL env r0 _ (rb_apply_sem C D sem ok SL CS env eq_refl r0 fuel) _ _ _ E K0 Hes)
    as (_ & _ & _ & S).
  rewrite val_eval in S. exact S.
Qed.
