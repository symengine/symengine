(* C37 -- how Symbols flow through the rebuild of tree_cse (empty opt_subs), for constructors that
   do not invent Symbols ([ctors_syms]):
     - every Symbol leaf of a right-hand side / reduced expression is an excluded symbol (a Symbol
       of the inputs) or a replacement symbol that was pushed EARLIER (the replacement list can be
       evaluated front to back, back-substituted last to first),
     - nothing else appears.
   Both are [tree_cse_flow].
   Hypothesis [excl_complete]: every Symbol leaf of the inputs is in excluded_symbols.  It is a
   boolean of the model, evaluated by the extracted model on every explored input; CseExcl.v proves
   it for well-formed inputs. *)
From SE Require Export C37.CseProofs.
From SE Require Import Expr.Unfold C39.QueryLemmas.
Local Open Scope N_scope.

Lemma syms_flat : forall d c n, In c (flat d) -> In n (syms c) ->
  In n (flat_map (fun p => syms (fst p) ++ syms (snd p)) d).
Proof.
  intros d c n Hc Hn. apply in_flat_map in Hc. destruct Hc as (p & Hp & Hc). apply in_flat_map. exists p.
  split; [exact Hp|]. apply in_or_app. destruct Hc as [<-|[<-|[]]]; auto.
Qed.
Lemma syms_child : forall e c n, In c (children e) -> In n (syms c) -> In n (syms e).
Proof.
  intros e c n Hc Hn. destruct e; cbn [children] in Hc; cbn [syms]; try (destruct Hc; fail);
    try (eapply syms_flat; eassumption); try (apply in_flat_map; exists c; auto; fail);
    try (destruct Hc as [<-|[<-|[]]]; apply in_or_app; auto; fail).
  - apply in_map_iff in Hc. destruct Hc as (p & <- & Hp). apply in_flat_map. exists p. auto.
  - destruct Hc as [<-|[]]. exact Hn.
  - destruct Hc as [<-|Hc]; apply in_or_app; [left; exact Hn|right]. apply in_flat_map. exists c. auto.
  - destruct Hc as [<-|Hc]; apply in_or_app; [left; exact Hn|right]. eapply syms_flat; eassumption.
Qed.

Lemma syms_get_args : forall e a n, In a (get_args e) -> In n (syms a) -> In n (syms e).
Proof.
  intros e a n Hin.
  apply (args_closed (fun x => In n (syms x) -> In n (syms e)) (fun _ => True)) with (e := e);
    try (intros; exact I); try (intros; split; intros; exact I); auto.
  - intros v _ [].
  - intros b [].
  - intros x c Hx Hc Hn. eapply Hx, syms_child; eassumption.
  - intros b x Hb Hx Hn. cbn [syms] in Hn. apply in_app_or in Hn. destruct Hn; auto.
  - intros v d _ Hd Hn. cbn [syms] in Hn. apply in_flat_map in Hn. destruct Hn as ([k x] & Hp & Hn).
    cbn [fst snd] in Hn. apply in_app_or in Hn. destruct Hn as [Hn|Hn]; [apply (Hd k)|apply (Hd x)];
      eauto using in_flat_l, in_flat_r.
Qed.

Record ctors_syms (C : ctors) : Prop := mkCS {
  cs_add : forall l v n, c_add C l = Ok v -> In n (syms v) -> exists a, In a l /\ In n (syms a);
  cs_mul : forall l v n, c_mul C l = Ok v -> In n (syms v) -> exists a, In a l /\ In n (syms a);
  cs_pow : forall a b v n, c_pow C a b = Ok v -> In n (syms v) -> In n (syms a) \/ In n (syms b);
  cs_f1 : forall c a v n, c_f1 C c a = Ok v -> In n (syms v) -> In n (syms a);
  cs_f2 : forall c a b v n, c_f2 C c a b = Ok v -> In n (syms v) -> In n (syms a) \/ In n (syms b);
  cs_fn : forall c l v n, c_fn C c l = Ok v -> In n (syms v) -> exists a, In a l /\ In n (syms a);
  cs_eq_true : forall a v n, c_eq_true C a = Ok v -> In n (syms v) -> In n (syms a);
  cs_pw : forall l v n, c_pw C l = Ok v -> In n (syms v) ->
            exists p, In p l /\ (In n (syms (fst p)) \/ In n (syms (snd p)))
}.

(* such constructors rebuild a node with the Symbols of the new arguments only *)
Section RebuiltSyms.
  Variable C : ctors.
  Hypothesis CS : ctors_syms C.

  Lemma pw_pairs_syms : forall y pl, pw_pairs C y pl -> forall p n, In p pl ->
    In n (syms (fst p)) \/ In n (syms (snd p)) -> exists a, In a y /\ In n (syms a).
  Proof using CS.
    induction 1 as [|b c c' y pl Hc _ IH]; intros p n Hp Hn; [destruct Hp|]. destruct Hp as [<-|Hp].
    - cbn [fst snd] in Hn. destruct Hn as [Hn|Hn]; [exists b; cbn [In]; auto|].
      exists c. split; [cbn [In]; auto|]. destruct (is_boolean c); [inv_ok Hc; exact Hn|].
      eapply cs_eq_true; eassumption.
    - destruct (IH p n Hp Hn) as (a & Ha & Hna). exists a. cbn [In]. auto.
  Qed.

  Lemma rebuilt_syms : forall e y v n, rebuilt C e y v -> In n (syms v) -> exists a, In a y /\ In n (syms a).
  Proof using CS.
    intros e y v n H Hn. destruct H as [co d y v E|co d y v E|b x b' x' v E|c a a' v E|c a b a' b' v E|c l y v E
                                        |l y v E|l y v E|l a b t v E|nm l y|l y pl v Hp E].
    - eapply cs_add; eassumption.
    - eapply cs_mul; eassumption.
    - destruct (cs_pow C CS _ _ _ _ E Hn); [exists b'|exists x']; cbn [In]; auto.
    - exists a'. split; [left; reflexivity|]. eapply cs_f1; eassumption.
    - destruct (cs_f2 C CS _ _ _ _ _ E Hn); [exists a'|exists b']; cbn [In]; auto.
    - eapply cs_fn; eassumption.
    - eapply cs_add; eassumption.
    - eapply cs_mul; eassumption.
    - destruct (cs_pow C CS _ _ _ _ E Hn); [exists a|exists b]; cbn [In]; auto.
    - cbn [syms] in Hn. apply in_flat_map in Hn. exact Hn.
    - destruct (cs_pw C CS _ _ _ E Hn) as (p & Hp' & Q). eapply pw_pairs_syms; eassumption.
  Qed.
End RebuiltSyms.

Section Flow.
  Variable C : ctors.
  Hypothesis CS : ctors_syms C.
  Variable env : rb_env.
  Hypothesis no_opt : env_opt env = [].
  Let excl := env_excl env.

  Definition excl_ok (e : expr) : Prop := forall n, In n (syms e) -> hset_mem (ESym n) excl = true.
  Definition known (reps : list (expr * expr)) (n : list N) : Prop :=
    hset_mem (ESym n) excl = true \/ exists r, In (ESym n, r) reps.
  Definition good (st : rb_state) (v : expr) : Prop := forall n, In n (syms v) -> known (rb_reps st) n.

  (* every right-hand side mentions only excluded symbols and symbols pushed before it *)
  Fixpoint wfreps (l : list (expr * expr)) : Prop :=
    match l with
    | [] => True
    | (s, r) :: t => (forall n, In n (syms r) -> known t n) /\ wfreps t
    end.
  Definition subs_ok (st : rb_state) : Prop :=
    forall o s, In (o, s) (rb_subs st) -> exists n r, s = ESym n /\ In (ESym n, r) (rb_reps st).
  Definition J (st : rb_state) : Prop := wfreps (rb_reps st) /\ subs_ok st.

  (* growth of the replacement list *)
  Definition grows (st st' : rb_state) : Prop := exists new, rb_reps st' = new ++ rb_reps st.
  Lemma grows_refl : forall st, grows st st.
  Proof. intro. exists []. reflexivity. Qed.
  Lemma grows_trans : forall a b c, grows a b -> grows b c -> grows a c.
  Proof. intros a b c (n1 & E1) (n2 & E2). exists (n2 ++ n1). rewrite E2, E1. apply app_assoc. Qed.
  Lemma good_grows : forall st st' v, grows st st' -> good st v -> good st' v.
  Proof.
    intros st st' v (new & E) G n Hn. destruct (G n Hn) as [H|(r & H)]; [left; exact H|right].
    exists r. rewrite E. apply in_or_app. right. exact H.
  Qed.
  Lemma excl_ok_good : forall st e, excl_ok e -> good st e.
  Proof. intros st e H n Hn. left. apply H. exact Hn. Qed.
  Lemma subs_ok_good : forall st o s, subs_ok st -> In (o, s) (rb_subs st) -> good st s.
  Proof.
    intros st o s HS Hin. destruct (HS _ _ Hin) as (n & r & -> & Hr).
    intros m Hm. cbn [syms] in Hm. destruct Hm as [<-|[]]. right. exists r. exact Hr.
  Qed.
  Lemma excl_ok_args : forall e a, excl_ok e -> In a (get_args e) -> excl_ok a.
  Proof. intros e a H Hin n Hn. apply H. eapply syms_get_args; eassumption. Qed.

  Lemma bmap_find_key : forall k m v, bmap_find k m = Some v ->
    exists k', In (k', v) m /\ (hash k' =? hash k) && expr_eqb k k' = true.
  Proof.
    induction m as [|[k' v'] m IH]; intros v H; cbn [bmap_find] in H; [discriminate|].
    destruct ((hash k' =? hash k) && expr_eqb k k') eqn:E.
    - injection H as <-. exists k'. split; [left; reflexivity|exact E].
    - destruct (IH _ H) as (k2 & Hin & Hk). exists k2. split; [right; exact Hin|exact Hk].
  Qed.

  (* what one call of apply guarantees *)
  Definition ap_ok (ap : rb_state -> expr -> res ares) : Prop :=
    forall st e x, ap st e = Ok x -> J st -> excl_ok e ->
      J (fst x) /\ good (fst x) (fst (snd x)) /\ grows st (fst x).

  Section Visit.
    Variable ap : rb_state -> expr -> res ares.
    Hypothesis AP : ap_ok ap.

    Lemma apply_list_ok : forall l st x, apply_list ap st l = Ok x -> J st ->
      (forall a, In a l -> excl_ok a) ->
      J (fst x) /\ (forall v, In v (snd x) -> good (fst x) v) /\ grows st (fst x).
    Proof using AP.
      induction l as [|a l IH]; intros st x H HJ Hl; cbn [apply_list] in H.
      - inv_ok H. cbn [fst snd]. split; [exact HJ|]. split; [intros v []|apply grows_refl].
      - stepn H r1 E1. stepn H r2 E2. inv_ok H. cbn [fst snd].
        destruct (AP _ _ _ E1 HJ (Hl a (or_introl eq_refl))) as (J1 & G1 & W1).
        destruct (IH _ _ E2 J1 (fun b Hb => Hl b (or_intror Hb))) as (J2 & G2 & W2).
        split; [exact J2|]. split; [|eapply grows_trans; eassumption].
        intros v [<-|Hv]; [eapply good_grows; eassumption|apply G2; exact Hv].
    Qed.

    Lemma good_of_list : forall st (l : list expr) v,
      (forall n, In n (syms v) -> exists a, In a l /\ In n (syms a)) ->
      (forall a, In a l -> good st a) -> good st v.
    Proof. intros st l v H G n Hn. destruct (H n Hn) as (a & Ha & Hna). exact (G a Ha n Hna). Qed.

    Lemma rb_visit_ok : ap_ok (rb_visit C ap).
    Proof using AP CS.
      intros st e x H HJ He. destruct (rb_visit_inv C ap _ _ _ H) as [[-> ->]|(y & E & Hv)].
      - split; [exact HJ|]. split; [apply excl_ok_good; exact He|apply grows_refl].
      - destruct (apply_list_ok _ _ _ E HJ (fun a Ha => excl_ok_args _ a He Ha)) as (J1 & G1 & W1).
        cbn [fst snd] in J1, G1, W1. split; [exact J1|]. split; [|exact W1].
        destruct Hv as [->|Hv]; [apply excl_ok_good; exact He|].
        eapply good_of_list; [intros n Hn; eapply rebuilt_syms; eassumption|exact G1].
    Qed.
  End Visit.

  Lemma rb_apply_ok : forall fuel, ap_ok (rb_apply C env fuel).
  Proof using CS no_opt.
    induction fuel as [|f IH]; intros st e x H HJ He; [discriminate|].
    destruct (rb_apply_inv _ _ _ _ _ _ H) as [->|[(s & EF & ->)|(e' & r1 & Ee & E1 & Hx)]]; cbn [fst snd].
    { (* atom *) split; [exact HJ|]. split; [apply excl_ok_good; exact He|apply grows_refl]. }
    { (* substituted before *) split; [exact HJ|]. split; [|apply grows_refl].
      destruct (bmap_find_key _ _ _ EF) as (k' & Hin & _). exact (subs_ok_good _ _ _ (proj2 HJ) Hin). }
    rewrite (Ee no_opt) in E1.
    destruct (rb_visit_ok _ IH _ _ _ E1 HJ He) as (J1 & G1 & W1).
    destruct Hx as [(b & ->)|(s & k' & E2 & ->)]; cbn [fst snd].
    - (* the rebuilt node *) split; [exact J1|]. split; [exact G1|exact W1].
    - (* a new symbol for the rebuilt node *)
      apply next_symbol_spec in E2. destruct E2 as (j & Hs & _ & _ & _). unfold sym_x in Hs.
      split; [|split].
      + split.
        * cbn [rb_reps wfreps]. split; [exact G1|apply J1].
        * intros o s' [Ho|Ho]; cbn [rb_reps].
          -- injection Ho as <- <-. exists (sym_name j), (fst (snd r1)). split; [exact Hs|]. left. rewrite Hs. reflexivity.
          -- destruct J1 as [_ HS]. destruct (HS _ _ Ho) as (n & r & Hn & Hr). exists n, r. split; [exact Hn|right; exact Hr].
      + intros m Hm. rewrite Hs in Hm. cbn [syms] in Hm. destruct Hm as [<-|[]]. right.
        exists (fst (snd r1)). cbn [rb_reps]. left. rewrite Hs. reflexivity.
      + eapply grows_trans; [exact W1|]. exists [(s, fst (snd r1))]. reflexivity.
  Qed.

End Flow.

(* the entry (s, r) of a well-formed list mentions only what is known from the entries after it *)
Lemma wfreps_at : forall excl a s r b n, wfreps excl (a ++ (s, r) :: b) -> In n (syms r) -> known excl b n.
Proof.
  induction a as [|[s' r'] a IH]; intros s r b n H; cbn [app wfreps] in H; [apply H|]. apply (IH s). apply H.
Qed.

Lemma rev_split : forall {A} (l l1 l2 : list A) x, rev l = l1 ++ x :: l2 -> l = rev l2 ++ x :: rev l1.
Proof.
  intros A l l1 l2 x H. rewrite <- (rev_involutive l), H, rev_app_distr. cbn [rev]. rewrite <- app_assoc. reflexivity.
Qed.

Theorem tree_cse_flow : forall C fuel es reps red excl,
  ctors_syms C ->
  tree_cse_with C fuel [] es = Ok (reps, red) ->
  tree_cse_excluded fuel [] es = Ok excl ->
  excl_complete excl es = true ->
  defined_before reps /\
  (forall o n, In o (red ++ map snd reps) -> In n (syms o) ->
     (exists r, In (ESym n, r) reps) \/ hset_mem (ESym n) excl = true).
Proof.
  intros C fuel es reps red excl CS H HX HC.
  pose proof (tree_cse_fresh_names _ _ _ _ _ _ H) as (excl' & ks & HX' & Hkeys & _ & Hnot).
  rewrite HX in HX'. injection HX' as <-.
  destruct (tree_cse_with_inv _ _ _ _ _ _ H) as (fr & x & HX' & E & -> & ->).
  rewrite HX in HX'. injection HX' as ->.
  set (env := mkEnv [] (fr_elim fr) (fr_excl fr)) in *.
  assert (J0 : J env rb_empty) by (split; [exact I|intros o s []]).
  destruct (apply_list_ok env _ (rb_apply_ok C CS env eq_refl fuel) _ _ _ E J0 (proj1 (excl_complete_iff _ _) HC))
    as ((WF & _) & G & _).
  split.
  - intros l1 s r l2 n Hsplit Hocc Hin.
    apply rev_split in Hsplit. rewrite Hsplit in WF.
    destruct (wfreps_at _ _ _ _ _ n WF Hocc) as [Hex|(r' & Hr')].
    + exfalso. rewrite Hkeys in Hin. apply in_map_iff in Hin. destruct Hin as (k & Hk & Hkin).
      specialize (Hnot k Hkin). rewrite Hk in Hnot. change (env_excl env) with (fr_excl fr) in Hex. congruence.
    + apply in_map_iff. exists (ESym n, r'). split; [reflexivity|]. apply in_rev. exact Hr'.
  - intros o n Ho Hn. apply in_app_or in Ho. destruct Ho as [Ho|Ho].
    + destruct (G o Ho n Hn) as [Q|(r & Q)]; [right; exact Q|left]. exists r. apply -> in_rev. exact Q.
    + apply in_map_iff in Ho. destruct Ho as ([s r] & <- & Hsr). cbn [snd] in Hn.
      apply <- in_rev in Hsr. apply in_split in Hsr. destruct Hsr as (l1 & l2 & Hsplit).
      rewrite Hsplit in WF.
      destruct (wfreps_at _ _ _ _ _ n WF Hn) as [Q|(r' & Q)]; [right; exact Q|left]. exists r'. apply -> in_rev.
      rewrite Hsplit. apply in_or_app. right. right. exact Q.
Qed.
