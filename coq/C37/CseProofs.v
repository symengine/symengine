(* C37 -- proofs about the tree_cse model, for ANY constructors [C] (they hold in particular for
   the library instance of CseLib.v):
     - one visit of the TransformVisitor dispatch applies itself to all of get_args in order and
       then returns the node or constructs a new one from the results (rb_visit_inv: the one case
       analysis of the dispatch, also behind CseFlow.v and CseSem.v),
     - the state of the RebuildVisitor only grows: replacements are appended, the symbol counter
       only increases,
     - tree_cse_fresh_names: the replacement symbols are x<k0>, x<k1>, ... with k0 < k1 < ...,
       none of them in excluded_symbols; hence pairwise distinct. *)
From SE Require Export C37.CseNames.
From Coq Require Import Lia Sorted.
Local Open Scope N_scope.

Lemma bind_ok : forall {A B} (r : res A) (f : A -> res B) x,
  bind r f = Ok x -> exists a, r = Ok a /\ f a = Ok x.
Proof. intros A B r f x H. destruct r; cbn [bind] in H; try discriminate. exists a. split; [reflexivity|exact H]. Qed.

(* H : Ok a = Ok b  becomes  a = b, substituted *)
Ltac inv_ok H := injection H as H; subst.
(* H : bind r f = Ok x  becomes  E : r = Ok a  and  H : f a = Ok x *)
Tactic Notation "stepn" hyp(H) ident(a) ident(E) :=
  apply bind_ok in H; destruct H as (a & E & H).

(* one visit: the arguments are rebuilt in order, then the node *)
Section Visit.
  Variable C : ctors.

  (* the (branch, condition) pairs that TransformVisitor::bvisit(const Piecewise &) hands to
     piecewise(): y is the list of rebuilt arguments, branch and condition alternating *)
  Inductive pw_pairs : list expr -> list (expr * expr) -> Prop :=
  | PP_nil : pw_pairs [] []
  | PP_cons : forall b c c' y pl,
      (if is_boolean c then Ok c else c_eq_true C c) = Ok c' -> pw_pairs y pl ->
      pw_pairs (b :: c :: y) ((b, c') :: pl).

  (* rebuilt e y v: from the rebuilt arguments y, the visit of node e constructs v *)
  Inductive rebuilt : expr -> list expr -> expr -> Prop :=
  | RB_add : forall co d y v, c_add C y = Ok v -> rebuilt (EAdd co d) y v
  | RB_mul : forall co d y v, c_mul C y = Ok v -> rebuilt (EMul co d) y v
  | RB_pow : forall b x b' x' v, c_pow C b' x' = Ok v -> rebuilt (EPow b x) [b'; x'] v
  | RB_f1 : forall c a a' v, c_f1 C c a' = Ok v -> rebuilt (EF1 c a) [a'] v
  | RB_f2 : forall c a b a' b' v, c_f2 C c a' b' = Ok v -> rebuilt (EF2 c a b) [a'; b'] v
  | RB_fn : forall c l y v, c_fn C c y = Ok v -> rebuilt (EFN c l) y v
  | RB_fs_add : forall l y v, c_add C y = Ok v -> rebuilt (EFunSym name_add l) y v
  | RB_fs_mul : forall l y v, c_mul C y = Ok v -> rebuilt (EFunSym name_mul l) y v
  | RB_fs_pow : forall l a b t v, c_pow C a b = Ok v -> rebuilt (EFunSym name_pow l) (a :: b :: t) v
  | RB_fs : forall nm l y, rebuilt (EFunSym nm l) y (EFunSym nm y)
  | RB_pw : forall l y pl v, pw_pairs y pl -> c_pw C pl = Ok v -> rebuilt (EPw l) y v.

  Variable ap : rb_state -> expr -> res ares.

  Lemma apply_pairs_list : forall l st x, apply_pairs C ap st l = Ok x ->
    exists y, apply_list ap st (get_args (EPw l)) = Ok (fst x, y) /\ pw_pairs y (snd x).
  Proof.
    induction l as [|[b c] l IH]; intros st x H; cbn [apply_pairs] in H.
    - inv_ok H. exists []. split; [reflexivity|constructor].
    - stepn H r1 E1. stepn H r2 E2. stepn H c' E3. stepn H r3 E4. inv_ok H.
      destruct (IH _ _ E4) as (y & Ey & Hy). cbn [get_args] in Ey.
      exists (fst (snd r1) :: fst (snd r2) :: y). split; [|constructor; assumption].
      cbn [get_args flat_map app fst snd apply_list]. rewrite E1. cbn [bind]. rewrite E2. cbn [bind].
      rewrite Ey. reflexivity.
  Qed.

  (* either nothing is visited and the node is returned, or all of get_args is, and the result
     is the node itself or constructed from the new arguments *)
  Lemma rb_visit_inv : forall st e x, rb_visit C ap st e = Ok x ->
    (fst x = st /\ fst (snd x) = e) \/
    exists y, apply_list ap st (get_args e) = Ok (fst x, y) /\
              (fst (snd x) = e \/ rebuilt e y (fst (snd x))).
  Proof.
    intros st e x H.
    assert (L1 : forall a r1, ap st a = Ok r1 -> apply_list ap st [a] = Ok (fst r1, [fst (snd r1)])).
    { intros a r1 E1. cbn [apply_list]. rewrite E1. reflexivity. }
    assert (L2 : forall a b r1 r2, ap st a = Ok r1 -> ap (fst r1) b = Ok r2 ->
              apply_list ap st [a; b] = Ok (fst r2, [fst (snd r1); fst (snd r2)])).
    { intros a b r1 r2 E1 E2. cbn [apply_list]. rewrite E1. cbn [bind]. rewrite E2. reflexivity. }
    destruct e as [n|nm|nm idx|nm|co d|co d|pb px|code fa|code fa fb|code l|nm l|code la lb|da dxs|sa sd|pl|bb|is ie lo ro|code];
      cbn [rb_visit] in H; try (left; inv_ok H; split; reflexivity).
    - (* Add *) stepn H r1 E1. stepn H v E2. inv_ok H. destruct r1 as [st1 y]. right. exists y. split; [exact E1|].
      right. constructor. exact E2.
    - (* Mul *) stepn H r1 E1. stepn H v E2. inv_ok H. destruct r1 as [st1 y]. right. exists y. split; [exact E1|].
      right. constructor. exact E2.
    - (* Pow *) stepn H r1 E1. stepn H r2 E2. right. exists [fst (snd r1); fst (snd r2)].
      destruct (snd (snd r1) && snd (snd r2)); [|stepn H v E3]; inv_ok H; (split; [exact (L2 _ _ _ _ E1 E2)|]).
      + left. reflexivity.
      + right. constructor. exact E3.
    - (* F1 *) destruct (is_one_arg_function code); [|left; inv_ok H; split; reflexivity]. right.
      stepn H r1 E1. exists [fst (snd r1)].
      destruct (expr_eqb (fst (snd r1)) fa); [|stepn H v E2]; inv_ok H; (split; [exact (L1 _ _ E1)|]).
      + left. reflexivity.
      + right. constructor. exact E2.
    - (* F2 *) stepn H r1 E1. stepn H r2 E2. right. exists [fst (snd r1); fst (snd r2)].
      destruct (snd (snd r1) && snd (snd r2)); [|stepn H v E3]; inv_ok H; (split; [exact (L2 _ _ _ _ E1 E2)|]).
      + left. reflexivity.
      + right. constructor. exact E3.
    - (* FN *) destruct (is_multi_arg_function code); [|left; inv_ok H; split; reflexivity]. right.
      stepn H r1 E1. stepn H v E2. inv_ok H. destruct r1 as [st1 y]. exists y. split; [exact E1|].
      right. constructor. exact E2.
    - (* FunSym *) stepn H r1 E1. destruct r1 as [st1 y]. cbn [fst snd] in H. right. exists y.
      destruct (bytes_eqb nm name_add) eqn:Ea.
      { apply bytes_eqb_eq in Ea. subst nm. stepn H v E2. inv_ok H. split; [exact E1|]. right. constructor. exact E2. }
      destruct (bytes_eqb nm name_mul) eqn:Em.
      { apply bytes_eqb_eq in Em. subst nm. stepn H v E2. inv_ok H. split; [exact E1|]. right. constructor. exact E2. }
      destruct (bytes_eqb nm name_pow) eqn:Ep.
      { apply bytes_eqb_eq in Ep. subst nm. destruct y as [|u [|w t]]; try discriminate.
        stepn H v E2. inv_ok H. split; [exact E1|]. right. constructor. exact E2. }
      inv_ok H. split; [exact E1|]. right. constructor.
    - (* Pw *) stepn H r1 E1. stepn H v E2. inv_ok H. destruct (apply_pairs_list _ _ _ E1) as (y & Ey & Hy).
      right. exists y. split; [exact Ey|]. right. econstructor; eassumption.
  Qed.
End Visit.

Section Mono.
  Variable C : ctors.
  Variable R : rb_state -> rb_state -> Prop.
  Hypothesis R_refl : forall s, R s s.
  Hypothesis R_trans : forall a b c, R a b -> R b c -> R a c.
  Variable ap : rb_state -> expr -> res ares.
  Hypothesis ap_mono : forall st e x, ap st e = Ok x -> R st (fst x).

  Lemma apply_list_mono : forall l st x, apply_list ap st l = Ok x -> R st (fst x).
  Proof using R_refl R_trans ap_mono.
    induction l as [|a l IH]; intros st x H; cbn [apply_list] in H.
    - inv_ok H. apply R_refl.
    - stepn H r1 E1. stepn H r2 E2. inv_ok H. cbn [fst].
      eapply R_trans; [eapply ap_mono; eassumption|]. eapply IH. eassumption.
  Qed.

  Lemma rb_visit_mono : forall st e x, rb_visit C ap st e = Ok x -> R st (fst x).
  Proof using R_refl R_trans ap_mono.
    intros st e x H. destruct (rb_visit_inv C ap _ _ _ H) as [[<- _]|(y & E & _)].
    - apply R_refl.
    - exact (apply_list_mono _ _ _ E).
  Qed.
End Mono.

(* l (last pushed first) carries the symbols x<k> with strictly decreasing k, lo <= k < hi,
   none excluded *)
Fixpoint chain (excl : hset) (l : list (expr * expr)) (lo hi : N) : Prop :=
  match l with
  | [] => lo <= hi
  | (s, r) :: t => exists k, s = sym_x k /\ k < hi /\ hset_mem s excl = false /\ chain excl t lo k
  end.

Lemma chain_le : forall excl l lo hi, chain excl l lo hi -> lo <= hi.
Proof.
  induction l as [|[s r] t IH]; intros lo hi H; cbn [chain] in H; [exact H|].
  destruct H as (k & _ & Hk & _ & Ht). apply IH in Ht. lia.
Qed.
Lemma chain_weaken : forall excl l lo hi hi', chain excl l lo hi -> hi <= hi' -> chain excl l lo hi'.
Proof.
  intros excl [|[s r] t] lo hi hi' H Hle; cbn [chain] in *; [lia|].
  destruct H as (k & Hs & Hk & He & Ht). exists k. repeat split; try assumption. lia.
Qed.
Lemma chain_app : forall excl l2 l1 lo mid hi,
  chain excl l2 mid hi -> chain excl l1 lo mid -> chain excl (l2 ++ l1) lo hi.
Proof.
  induction l2 as [|[s r] t IH]; intros l1 lo mid hi H2 H1; cbn [chain app] in *.
  - eapply chain_weaken; eassumption.
  - destruct H2 as (k & Hs & Hk & He & Ht). exists k. repeat split; try assumption. eapply IH; eassumption.
Qed.

Definition ext (excl : hset) (st st' : rb_state) : Prop :=
  exists new, rb_reps st' = new ++ rb_reps st /\ chain excl new (rb_next st) (rb_next st').

Lemma ext_refl : forall excl st, ext excl st st.
Proof. intros. exists []. split; [reflexivity|]. cbn [chain]. lia. Qed.
Lemma ext_trans : forall excl a b c, ext excl a b -> ext excl b c -> ext excl a c.
Proof.
  intros excl a b c (n1 & E1 & C1) (n2 & E2 & C2). exists (n2 ++ n1). split.
  - rewrite E2, E1. apply app_assoc.
  - eapply chain_app; eassumption.
Qed.

Lemma next_symbol_spec : forall excl fuel k s k',
  next_symbol excl fuel k = Ok (s, k') ->
  exists j, s = sym_x j /\ k <= j /\ k' = j + 1 /\ hset_mem s excl = false.
Proof.
  induction fuel as [|f IH]; intros k s k' H; cbn [next_symbol] in H; [discriminate|].
  destruct (W32 <=? k + 1); [discriminate|].
  destruct (hset_mem (sym_x k) excl) eqn:E.
  - apply IH in H. destruct H as (j & Hs & Hj & Hk & He). exists j. repeat split; try assumption. lia.
  - inv_ok H. exists k. repeat split; try assumption; lia.
Qed.

(* pushing the next free symbol extends the chain by one link *)
Lemma ext_push : forall excl fuel st s k' subs r,
  next_symbol excl fuel (rb_next st) = Ok (s, k') -> ext excl st (mkRB subs ((s, r) :: rb_reps st) k').
Proof.
  intros excl fuel st s k' subs r H. apply next_symbol_spec in H. destruct H as (j & Hs & Hj & Hk & He).
  exists [(s, r)]. cbn [rb_reps rb_next app]. split; [reflexivity|].
  cbn [chain]. exists j. repeat split; try assumption; lia.
Qed.

(* the four ways rb_apply answers: an atom as it is; what was substituted for the node before; the
   rebuilt node; or a new symbol pushed for the rebuilt node.  e' is the node itself unless opt_subs
   has an entry for it. *)
Lemma rb_apply_inv : forall C env f st e x, rb_apply C env (S f) st e = Ok x ->
  x = (st, (e, true))
  \/ (exists s, bmap_find e (rb_subs st) = Some s /\ x = (st, (s, false)))
  \/ exists e' r1, (env_opt env = [] -> e' = e) /\ rb_visit C (rb_apply C env f) st e' = Ok r1 /\
       ((exists b, x = (fst r1, (fst (snd r1), b)))
        \/ exists s k',
             next_symbol (env_excl env) (S (length (env_excl env))) (rb_next (fst r1)) = Ok (s, k') /\
             x = (mkRB ((e, s) :: rb_subs (fst r1)) ((s, fst (snd r1)) :: rb_reps (fst r1)) k', (s, false))).
Proof.
  intros C env f st e x H. cbn [rb_apply] in H.
  destruct (is_atom e); [inv_ok H; left; reflexivity|].
  destruct (bmap_find e (rb_subs st)) as [s|] eqn:EF; [inv_ok H; right; left; exists s; split; reflexivity|].
  right. right. stepn H r1 E1. eexists _, r1. split; [|split; [exact E1|]].
  - intros Hopt. rewrite Hopt. reflexivity.
  - destruct (hset_mem e (env_elim env)).
    + stepn H sk E2. inv_ok H. destruct sk as [s k']. right. exists s, k'. split; [exact E2|reflexivity].
    + inv_ok H. left. eexists. reflexivity.
Qed.

Section Ext.
  Variable C : ctors.
  Variable env : rb_env.
  Let excl := env_excl env.

  Lemma rb_apply_ext : forall fuel st e x, rb_apply C env fuel st e = Ok x -> ext excl st (fst x).
  Proof.
    induction fuel as [|f IH]; intros st e x H; [discriminate|].
    destruct (rb_apply_inv _ _ _ _ _ _ H) as [->|[(s & _ & ->)|(e' & r1 & _ & E1 & Hx)]]; try apply ext_refl.
    assert (G : ext excl st (fst r1)).
    { eapply (rb_visit_mono C (ext excl) (ext_refl excl) (ext_trans excl) (rb_apply C env f) IH). eassumption. }
    destruct Hx as [(b & ->)|(s & k' & E2 & ->)]; cbn [fst]; [exact G|].
    eapply ext_trans; [exact G|]. exact (ext_push _ _ _ _ _ _ _ E2).
  Qed.

End Ext.

Lemma chain_keys : forall excl l lo hi, chain excl l lo hi ->
  exists ks, map fst l = map sym_x ks /\ StronglySorted (fun a b => b < a) ks
             /\ (forall j, In j ks -> lo <= j < hi /\ hset_mem (sym_x j) excl = false).
Proof.
  induction l as [|[s r] t IH]; intros lo hi H; cbn [chain] in H.
  - exists []. split; [reflexivity|]. split; [constructor|]. intros j [].
  - destruct H as (k & Hs & Hk & He & Ht). pose proof (chain_le _ _ _ _ Ht) as Hle.
    destruct (IH _ _ Ht) as (ks & Hm & Hsort & Hall). exists (k :: ks).
    split; [cbn [map fst]; rewrite Hs, Hm; reflexivity|]. split.
    + constructor; [exact Hsort|]. apply Forall_forall. intros j Hj. destruct (Hall j Hj) as [[_ ?] _]. assumption.
    + intros j [<-|Hj].
      * split; [lia|]. rewrite <- Hs. exact He.
      * destruct (Hall j Hj) as [[? ?] ?]. split; [lia|assumption].
Qed.

Lemma sorted_snoc : forall (r : list N) a, StronglySorted N.lt r -> Forall (fun b => b < a) r ->
  StronglySorted N.lt (r ++ [a]).
Proof.
  induction r as [|b r IH]; intros a Hs Ha; cbn [app].
  - constructor; constructor.
  - inversion Hs as [|? ? Hr Hb]. subst. inversion Ha as [|? ? Hba Har]. subst.
    constructor; [apply IH; assumption|].
    apply Forall_app. split; [exact Hb|]. constructor; [exact Hba|constructor].
Qed.
Lemma sorted_rev : forall l, StronglySorted (fun a b : N => b < a) l -> StronglySorted N.lt (rev l).
Proof.
  induction l as [|a l IH]; intro H; cbn [rev]; [constructor|].
  inversion H as [|? ? Hl Ha]. subst. apply sorted_snoc; [apply IH; exact Hl|].
  apply Forall_forall. intros b Hb. rewrite Forall_forall in Ha. apply Ha. apply in_rev. exact Hb.
Qed.

Lemma sorted_NoDup : forall (R : N -> N -> Prop) l, (forall a, ~ R a a) -> StronglySorted R l -> NoDup l.
Proof.
  intros R l Irr. induction l as [|a l IH]; intro H; [constructor|]. inversion H as [|? ? Hl Ha]. subst.
  constructor; [|apply IH; exact Hl]. intro Hin. rewrite Forall_forall in Ha. exact (Irr a (Ha a Hin)).
Qed.

Lemma NoDup_map_sym_x : forall ks, NoDup ks -> NoDup (map sym_x ks).
Proof.
  induction ks as [|k ks IH]; intro H; cbn [map]; [constructor|]. inversion H as [|? ? Hk Hks]. subst.
  constructor; [|apply IH; exact Hks]. intro Hin. apply in_map_iff in Hin. destruct Hin as (j & Hj & Hin).
  apply sym_x_inj in Hj. subst j. contradiction.
Qed.

(* a run: find_repeated over the inputs, then apply over the inputs *)
Lemma rb_all_apply_list : forall C env fuel es st, rb_all C env fuel st es = apply_list (rb_apply C env fuel) st es.
Proof.
  induction es as [|e es IH]; intro st; cbn [rb_all apply_list]; [reflexivity|].
  destruct (rb_apply C env fuel st e); cbn [bind]; [rewrite IH|..]; reflexivity.
Qed.

Lemma tree_cse_with_inv : forall C fuel opt es reps red,
  tree_cse_with C fuel opt es = Ok (reps, red) ->
  exists fr x, tree_cse_excluded fuel opt es = Ok (fr_excl fr) /\
    apply_list (rb_apply C (mkEnv opt (fr_elim fr) (fr_excl fr)) fuel) rb_empty es = Ok x /\
    reps = rev (rb_reps (fst x)) /\ red = snd x.
Proof.
  intros C fuel opt es reps red H. unfold tree_cse_with in H. stepn H fr E1. stepn H x E2. inv_ok H.
  exists fr, x. unfold tree_cse_excluded. rewrite E1, <- rb_all_apply_list. repeat split. exact E2.
Qed.

(* the replacement symbols of tree_cse are x<k0>, x<k1>, ... with k0 < k1 < ..., none of them
   among the excluded symbols collected by find_repeated *)
Theorem tree_cse_fresh_names : forall C fuel opt es reps red,
  tree_cse_with C fuel opt es = Ok (reps, red) ->
  exists excl ks,
    tree_cse_excluded fuel opt es = Ok excl /\
    map fst reps = map sym_x ks /\ StronglySorted N.lt ks /\
    (forall k, In k ks -> hset_mem (sym_x k) excl = false).
Proof.
  intros C fuel opt es reps red H. destruct (tree_cse_with_inv _ _ _ _ _ _ H) as (fr & x & HX & E & -> & ->).
  set (env := mkEnv opt (fr_elim fr) (fr_excl fr)) in E.
  pose proof (apply_list_mono _ (ext_refl _) (ext_trans _) _ (rb_apply_ext C env fuel) _ _ _ E) as (new & Hnew & Hchain).
  cbn [rb_reps rb_next rb_empty env_excl] in Hnew, Hchain. rewrite app_nil_r in Hnew.
  destruct (chain_keys _ _ _ _ Hchain) as (ks & Hm & Hsort & Hall).
  exists (fr_excl fr), (rev ks). repeat split.
  - exact HX.
  - rewrite Hnew, map_rev, Hm, map_rev. reflexivity.
  - apply sorted_rev. exact Hsort.
  - intros k Hk. apply in_rev in Hk. destruct (Hall k Hk) as [_ ?]. assumption.
Qed.

Corollary tree_cse_symbols_distinct : forall C fuel opt es reps red,
  tree_cse_with C fuel opt es = Ok (reps, red) -> NoDup (map fst reps).
Proof.
  intros C fuel opt es reps red H. destruct (tree_cse_fresh_names _ _ _ _ _ _ H) as (excl & ks & _ & Hm & Hs & _).
  rewrite Hm. apply NoDup_map_sym_x. exact (sorted_NoDup N.lt _ N.lt_irrefl Hs).
Qed.
