(* C37 obligation: the checker that the extracted model runs on the outputs of the
   library's cse() for every explored input is sound: when it answers true, (reps, red) is a
   faithful factoring of es in the sense of CseSpec.v -- as many outputs as inputs, the library's
   own back-substitution `back` is eq to the inputs, every replacement key is a Symbol, pairwise
   distinct, not occurring in es, every right-hand side mentions only replacement symbols defined
   strictly earlier, and no Symbol is invented.  For ALL es, reps, red, back. *)
From SE Require Import C37.CseCheckProofs.
Theorem C37_check_cse_sound :
  forall (es : list expr) (reps : list (expr * expr)) (red back : list expr),
    check_cse es reps red back = true ->
    length red = length es /\
    Forall2 (fun b e => expr_eqb b e = true) back es /\
    (forall s r, In (s, r) reps -> exists n, s = ESym n) /\
    NoDup (map fst reps) /\
    (forall n r e, In (ESym n, r) reps -> In e es -> ~ In n (syms e)) /\
    (forall l1 s r l2 n, reps = l1 ++ (s, r) :: l2 -> In n (syms r) ->
        In (ESym n) (map fst reps) -> In (ESym n) (map fst l1)) /\
    (forall o n, In o (red ++ map snd reps) -> In n (syms o) ->
        (exists r, In (ESym n, r) reps) \/ (exists e, In e es /\ In n (syms e))).
Proof.
  intros es reps red back H. destruct (check_cse_sound _ _ _ _ H) as [H1 H2 H3 H4 H5 H6 H7].
  repeat split; assumption.
Qed.
Print Assumptions C37_check_cse_sound.
