(* C37 -- soundness of the checker: check_cse es reps red back = true -> cse_valid es reps red back. *)
From SE Require Export C37.CseSpec.
Local Open Scope N_scope.

Lemma bytes_cmp_eq : forall a b, bytes_cmp a b = 0%Z -> a = b.
Proof.
  induction a as [|x a IH]; intros [|y b] H; cbn [bytes_cmp] in H; try discriminate; try reflexivity.
  destruct (x =? y) eqn:E.
  - apply N.eqb_eq in E. subst y. f_equal. apply IH. exact H.
  - destruct (x <? y); discriminate.
Qed.
Lemma bytes_cmp_refl : forall a, bytes_cmp a a = 0%Z.
Proof. induction a as [|x a IH]; cbn [bytes_cmp]; [reflexivity|]. rewrite N.eqb_refl. exact IH. Qed.
Lemma bytes_eqb_eq : forall a b, bytes_eqb a b = true <-> a = b.
Proof.
  intros a b. unfold bytes_eqb. split; intro H.
  - apply bytes_cmp_eq. apply Z.eqb_eq. exact H.
  - subst b. rewrite bytes_cmp_refl. reflexivity.
Qed.

Lemma mem_name_In : forall n l, mem_name n l = true <-> In n l.
Proof.
  intros n l. unfold mem_name. rewrite existsb_exists. split.
  - intros (x & Hin & Hx). apply bytes_eqb_eq in Hx. subst x. exact Hin.
  - intro Hin. exists n. split; [exact Hin|]. apply bytes_eqb_eq. reflexivity.
Qed.
Lemma mem_name_false : forall n l, mem_name n l = false <-> ~ In n l.
Proof.
  intros n l. rewrite <- mem_name_In. destruct (mem_name n l).
  - split; [discriminate|]. intro H. exfalso. apply H. reflexivity.
  - split; [intros _ H; discriminate|reflexivity].
Qed.

Lemma nodup_names_NoDup : forall l, nodup_names l = true -> NoDup l.
Proof.
  induction l as [|n l IH]; intro H; [constructor|].
  cbn [nodup_names] in H. apply andb_true_iff in H. destruct H as [H1 H2].
  constructor; [|apply IH; exact H2].
  apply negb_true_iff in H1. apply mem_name_false in H1. exact H1.
Qed.

Lemma occurs_in_any_iff : forall n es, occurs_in_any n es = true <-> exists e, In e es /\ sym_occurs n e.
Proof.
  intros n es. unfold occurs_in_any, sym_occurs. rewrite existsb_exists.
  split; intros (e & H1 & H2); exists e; (split; [exact H1|]); apply mem_name_In; exact H2.
Qed.

Lemma excl_complete_iff : forall excl es, excl_complete excl es = true <->
  forall e, In e es -> forall n, In n (syms e) -> hset_mem (ESym n) excl = true.
Proof.
  intros excl es. unfold excl_complete. rewrite forallb_forall.
  split; intros H e He; apply forallb_forall; exact (H e He).
Qed.

Definition as_reps (nr : list (list N * expr)) : list (expr * expr) :=
  map (fun p => (ESym (fst p), snd p)) nr.

Lemma rep_names_spec : forall reps nr, rep_names reps = Some nr -> reps = as_reps nr.
Proof.
  induction reps as [|[s r] t IH]; intros nr H; cbn [rep_names] in H.
  - inversion H. reflexivity.
  - destruct s; try discriminate. destruct (rep_names t) as [l|] eqn:E; [|discriminate].
    inversion H. subst nr. cbn [as_reps map fst snd]. f_equal. apply IH. reflexivity.
Qed.

Lemma in_as_reps : forall nr s r, In (s, r) (as_reps nr) -> exists n, s = ESym n /\ In (n, r) nr.
Proof.
  intros nr s r H. unfold as_reps in H. apply in_map_iff in H. destruct H as ([n r'] & Heq & Hin).
  cbn [fst snd] in Heq. inversion Heq. subst. exists n. split; [reflexivity|exact Hin].
Qed.

Lemma map_fst_as_reps : forall nr, map fst (as_reps nr) = map (fun n => ESym n) (map fst nr).
Proof. intro nr. unfold as_reps. rewrite !map_map. reflexivity. Qed.
Lemma map_snd_as_reps : forall nr, map snd (as_reps nr) = map snd nr.
Proof. intro nr. unfold as_reps. rewrite map_map. reflexivity. Qed.

Lemma NoDup_map_ESym : forall l, NoDup l -> NoDup (map (fun n => ESym n) l).
Proof.
  induction l as [|n l IH]; intro H; [constructor|]. inversion H as [|? ? Hn Hl]. subst.
  cbn [map]. constructor; [|apply IH; exact Hl].
  intro Hin. apply in_map_iff in Hin. destruct Hin as (m & Hm & Hin). inversion Hm. subst m. contradiction.
Qed.

Lemma in_keys_as_reps : forall nr n, In (ESym n) (map fst (as_reps nr)) <-> In n (map fst nr).
Proof.
  intros nr n. rewrite map_fst_as_reps. rewrite in_map_iff. split.
  - intros (m & Hm & Hin). injection Hm as Hm. subst m. exact Hin.
  - intro Hin. exists n. split; [reflexivity|exact Hin].
Qed.

Lemma check_acyclic_spec : forall l1 n0 rhs l2 n, check_acyclic (l1 ++ (n0, rhs) :: l2) = true ->
  In n (syms rhs) -> In n (map fst (l1 ++ (n0, rhs) :: l2)) -> In n (map fst l1).
Proof.
  induction l1 as [|[m rm] l1 IH]; intros n0 rhs l2 n H Hocc Hin; cbn [app] in *.
  - exfalso. cbn [check_acyclic] in H. apply andb_true_iff in H. destruct H as [H1 _].
    rewrite forallb_forall in H1. cbn [map fst] in Hin. specialize (H1 n Hin).
    apply negb_true_iff in H1. apply mem_name_false in H1. contradiction.
  - cbn [check_acyclic] in H. apply andb_true_iff in H. destruct H as [_ H2].
    cbn [map fst] in Hin |- *. destruct Hin as [Hin|Hin]; [left; exact Hin|].
    right. eapply IH; eassumption.
Qed.

Lemma as_reps_split : forall nr l1 s r l2, as_reps nr = l1 ++ (s, r) :: l2 ->
  exists m1 n0 m2, nr = m1 ++ (n0, r) :: m2 /\ l1 = as_reps m1 /\ s = ESym n0 /\ l2 = as_reps m2.
Proof.
  induction nr as [|[m rm] nr IH]; intros l1 s r l2 H.
  - destruct l1; discriminate.
  - destruct l1 as [|p l1]; cbn [as_reps map app fst snd] in H.
    + injection H as H1 H2 H3. subst. exists [], m, nr. repeat split; reflexivity.
    + injection H as H1 H2. subst p. destruct (IH _ _ _ _ H2) as (m1 & n0 & m2 & E1 & E2 & E3 & E4).
      subst. exists ((m, rm) :: m1), n0, m2. repeat split; reflexivity.
Qed.

Lemma forall2b_Forall2 : forall {A B} (f : A -> B -> bool) l1 l2,
  forall2b f l1 l2 = true -> Forall2 (fun a b => f a b = true) l1 l2.
Proof.
  induction l1 as [|x l1 IH]; intros [|y l2] H; cbn [forall2b] in H; try discriminate; [constructor|].
  apply andb_true_iff in H. destruct H as [H1 H2]. constructor; [exact H1|apply IH; exact H2].
Qed.

Theorem check_cse_sound : forall es reps red back,
  check_cse es reps red back = true -> cse_valid es reps red back.
Proof.
  intros es reps red back H. unfold check_cse in H.
  destruct (rep_names reps) as [nr|] eqn:E; [|discriminate].
  apply rep_names_spec in E. subst reps.
  apply andb_true_iff in H. destruct H as [H Hclosed]. apply andb_true_iff in H. destruct H as [H Hacyc].
  apply andb_true_iff in H. destruct H as [H Hfresh]. apply andb_true_iff in H. destruct H as [Hshape Hfaith].
  unfold check_fresh in Hfresh. apply andb_true_iff in Hfresh. destruct Hfresh as [Hnd Hfr].
  rewrite forallb_forall in Hfr.
  constructor.
  - apply Nat.eqb_eq. exact Hshape.
  - apply forall2b_Forall2. exact Hfaith.
  - intros s r Hin. apply in_as_reps in Hin. destruct Hin as (n & -> & _). exists n. reflexivity.
  - rewrite map_fst_as_reps. apply NoDup_map_ESym. apply nodup_names_NoDup. exact Hnd.
  - intros n r e Hin He Hocc. apply in_as_reps in Hin. destruct Hin as (n' & Hn & Hin). inversion Hn. subst n'.
    assert (Hn' : In n (map fst nr)). { apply in_map_iff. exists (n, r). split; [reflexivity|exact Hin]. }
    specialize (Hfr n Hn'). apply negb_true_iff in Hfr.
    assert (occurs_in_any n es = true). { apply occurs_in_any_iff. exists e. split; assumption. }
    congruence.
  - intros l1 s r l2 n Hsplit Hocc Hin.
    destruct (as_reps_split _ _ _ _ _ Hsplit) as (m1 & n0 & m2 & E1 & E2 & E3 & E4). subst.
    apply in_keys_as_reps. apply in_keys_as_reps in Hin.
    eapply check_acyclic_spec; eassumption.
  - intros o n Ho Hocc. rewrite map_snd_as_reps in Ho.
    unfold check_closed in Hclosed. rewrite forallb_forall in Hclosed. specialize (Hclosed o Ho).
    rewrite forallb_forall in Hclosed. specialize (Hclosed n Hocc).
    apply orb_true_iff in Hclosed. destruct Hclosed as [Hc|Hc].
    + left. apply mem_name_In in Hc. apply in_map_iff in Hc. destruct Hc as ([n' r] & Hn & Hin). cbn [fst] in Hn. subst n'.
      exists r. unfold as_reps. apply in_map_iff. exists (n, r). split; [reflexivity|exact Hin].
    + right. apply occurs_in_any_iff. exact Hc.
Qed.

(* the report line of the extracted checker is the conjunction *)
Lemma check_cse_parts_all : forall es reps red back,
  forallb (fun b => b) (check_cse_parts es reps red back) = check_cse es reps red back.
Proof.
  intros. unfold check_cse_parts, check_cse. destruct (rep_names reps); [|reflexivity].
  cbn [forallb]. rewrite andb_true_r. rewrite !andb_assoc. reflexivity.
Qed.
