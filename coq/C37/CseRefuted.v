(* C37 -- the faithful model reproduces the defects seen on the library (known_findings.txt);
   inputs of these shapes are run on the real library by checks/C37.py (CORPUS). *)
From SE Require Export C37.CseLib C37.CseCheck.
Local Open Scope N_scope.

Definition sx : expr := ESym [120].
Definition sy : expr := ESym [121].

(* (1) a user FunctionSymbol named "add" is evaluated: cse([add(x, y)]) returns no replacement
   and a reduced expression that is not eq to the input (with no replacement, back-substitution
   is the identity) *)
Definition wit_clash : list expr := [EFunSym name_add [sx; sy]].
Definition red_clash : list expr := [EAdd (NInt 0) [(sx, NInt 1); (sy, NInt 1)]].
Theorem funsym_name_clash_refuted :
  exists red, tree_cse_lib [] wit_clash = Ok ([], red) /\ forall2b expr_eqb red wit_clash = false.
Proof. exists red_clash. split; vm_compute; reflexivity. Qed.

(* (2) pow(x) with one argument: newargs[1] is read out of range *)
Theorem funsym_pow_arity_crash : tree_cse_lib [] [EFunSym name_pow [sx]] = ErrOOB 1 1.
Proof. vm_compute. reflexivity. Qed.

(* (3) FIXED in the library (fix: "cse replaced repeated Boolean subexpressions by symbols"): a
   Piecewise condition seen twice used to be replaced by a Symbol and wrapped in Eq(x0, True), so
   that substituting back gave Eq(True, x < y) instead of the condition x < y.  find_repeated no
   longer marks Booleans for elimination; on the former witness the model (as the library) now
   returns no replacement and the inputs themselves, and the proved checker accepts. *)
Definition cond_lt : expr := EF2 TC_StrictLessThan sx sy.
Definition wit_pw : list expr :=
  [EPw [(ESym [97], cond_lt); (ESym [98], EBool true)]; EPw [(ESym [99], cond_lt); (ESym [100], EBool true)]].
Theorem piecewise_condition_fixed :
  tree_cse_lib [] wit_pw = Ok ([], wit_pw) /\ check_cse wit_pw [] wit_pw wit_pw = true.
Proof. split; vm_compute; reflexivity. Qed.

Example witnesses_outside_guards :
  guard_reserved wit_clash = true /\ cse_guard wit_clash = true.
Proof. vm_compute. split; reflexivity. Qed.
