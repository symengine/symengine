(* C26 obligation: conjugate_matrix(e) denotes the entrywise complex conjugate of the value of e. *)
From SE Require Import C26.MatSpec C26.MatUnaryProofs.
Theorem C26_conjugate_matrix_sound :
  forall (rho : env) (e r : mexpr) (V : mat),
    conjugate_matrix e = Ok r -> denote rho e = Some V ->
    exists V', denote rho r = Some V' /\ meq V' (mkmat (mr V) (mc V) (fun i j => econj (mf V i j))).
Proof. exact conjugate_matrix_sound. Qed.
Print Assumptions C26_conjugate_matrix_sound.
