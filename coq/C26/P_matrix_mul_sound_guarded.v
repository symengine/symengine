(* C26 obligation: whenever matrix_mul returns an expression, it denotes
   (product of the scalar arguments) * (chain product of the matrix arguments), for all
   environments -- outside the one remaining defect class: a ZeroMatrix argument while an outer
   dimension of the product is unknown ([guard_mul_zero], see P_matrix_mul_zero_shape_refuted.v). *)
From SE Require Import C26.MatSpec C26.MatMulProofs.
Theorem C26_matrix_mul_sound_guarded :
  forall (rho : env) (args : list marg) (res : mexpr),
    matrix_mul args = Ok res -> guard_mul_zero args = false ->
    forall V, denote rho (naive_mul args) = Some V -> exists V', denote rho res = Some V' /\ meq V' V.
Proof. exact matrix_mul_sound_guarded. Qed.
Print Assumptions C26_matrix_mul_sound_guarded.
