(* C26 -- the eight predicates together: every answer agrees with the dense value. *)
From SE Require Import C26.MatSpec C26.MatLemmas C26.MatPredBase C26.MatPredRules C26.MatPredSym C26.MatPredToep.

Theorem predicates_sound rho e :
  wf e = true ->
  (empty_ident rho e = false -> sound_answer (is_zero e) P_zero rho e) /\
  sound_answer (is_real e) P_real rho e /\
  sound_answer (is_square e) P_square rho e /\
  (forall t, is_diagonal e = Ok t -> sound_answer t P_diagonal rho e) /\
  (forall t, is_symmetric e = Ok t -> sound_answer t P_symmetric rho e) /\
  (forall t, is_lower e = Ok t -> sound_answer t P_lower rho e) /\
  (forall t, is_upper e = Ok t -> sound_answer t P_upper rho e) /\
  (forall t, is_toeplitz e = Ok t -> sound_answer t P_toeplitz rho e).
Proof.
  intros Hwf.
  split; [intros; now apply is_zero_sound|].
  split; [apply is_real_sound|].
  split; [apply is_square_sound|].
  split; [intros; now apply is_diagonal_sound|].
  split; [intros; now apply is_symmetric_sound|].
  split; [intros; now apply is_lower_sound|].
  split; [intros; now apply is_upper_sound|].
  intros; now apply is_toeplitz_sound.
Qed.
