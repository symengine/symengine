(* C26 -- is_symmetric (is_symmetric.cpp) as an instance of the scheme of MatPredRules.v: its dense
   checker, its HadamardProduct rule (all factors symmetric), and symmetry as a property kept by sums,
   differences and entrywise products.  (Before the repair 7b2e06b the HadamardProduct case reused the
   MatrixAdd rule and answered "false" for symmetric values.) *)
From SE Require Import C26.MatSpec C26.MatLemmas C26.MatPredBase C26.MatPredRules.
From Coq Require Import Lia Ring.
Local Open Scope nat_scope.
Local Open Scope res_scope.

Definition chk_sym (n : nat) (v : list ent) (ij : nat * nat) : res tri :=
  if negb (snd ij =? fst ij)
  then (do a <- rd v (fst ij * n + snd ij); do b <- rd v (snd ij * n + fst ij); Ok (tz (esub a b)))
  else Ok TT.

Lemma chk_sym_step n v (ij : nat * nat) cur :
  (if negb (snd ij =? fst ij)
   then (do a <- dget n v (fst ij) (snd ij); do b <- dget n v (snd ij) (fst ij); Ok (and_tri cur (tz (esub a b))))
   else Ok cur)
  = (do b <- chk_sym n v ij; Ok (and_tri cur b)).
Proof.
  unfold chk_sym, dget. destruct (negb (snd ij =? fst ij)).
  - destruct (rd v (fst ij * n + snd ij)); cbn [bind]; try reflexivity.
    destruct (rd v (snd ij * n + fst ij)); reflexivity.
  - cbn [bind]. now rewrite and_tri_TT_r.
Qed.

(* inside a square matrix the reads succeed and the answer is definite *)
Lemma chk_sym_def n v :
  length v = n * n -> forall x, In x (lower_pairs n) -> chk_sym n v x = Ok TT \/ chk_sym n v x = Ok TF.
Proof.
  intros Lv [i j] Hin. apply in_lower_pairs in Hin. unfold chk_sym. cbn [fst snd].
  destruct (negb (j =? i)); [|now left].
  rewrite !rd_lt by (rewrite Lv; apply idx_lt; lia). cbn [bind].
  destruct (tz_cases (esub (nth (i * n + j) v e0) (nth (j * n + i) v e0))) as [-> | ->]; auto.
Qed.

Lemma dense_is_symmetric_sound rho m n v t :
  dense_is_symmetric m n v = Ok t -> sound_answer t P_symmetric rho (MDense m n v).
Proof.
  intros H. apply sound_answer_intro. intros s Hs V. subst V.
  apply shp_MDense_Some in Hs. destruct Hs as [Lv ->]. unfold P_symmetric. cbn [fst snd mr mc mf].
  unfold dense_is_symmetric in H. destruct (Nat.eqb_spec m n) as [->|Hne]; cbn [negb] in H.
  2:{ inversion H; subst. split; [discriminate|]. intros _ [A _]. congruence. }
  rewrite (loop_tri_ext _ (fun ij cur => do b <- chk_sym n v ij; Ok (and_tri cur b))) in H
    by (intros; apply chk_sym_step).
  destruct (loop_and_spec (chk_sym n v) (lower_pairs n) (chk_sym_def n v Lv)) as [[E A]|[E (x & Hx & Ex)]].
  - rewrite E in H. inversion H; subst. split; [|discriminate]. intros _. split; [reflexivity|].
    assert (G : forall i j, j < i -> i < n -> nth (i * n + j) v e0 = nth (j * n + i) v e0).
    { intros i j Hji Hi. specialize (A (i, j)). unfold chk_sym in A. cbn [fst snd] in A.
      assert (Hin : In (i, j) (lower_pairs n)) by (apply in_lower_pairs; lia).
      specialize (A Hin). destruct (Nat.eqb_spec j i); [lia|]. cbn [negb] in A.
      rewrite !rd_lt in A by (rewrite Lv; apply idx_lt; lia). cbn [bind] in A. injection A as A.
      apply tz_TT in A. now apply esub_zero_iff. }
    intros i j Hi Hj. rewrite !val_MDense.
    destruct (Nat.lt_trichotomy i j) as [L|[->|L]]; [symmetry; now apply G | reflexivity | now apply G].
  - rewrite E in H. inversion H; subst. split; [discriminate|]. intros _ [_ B].
    destruct x as [i j]. apply in_lower_pairs in Hx. unfold chk_sym in Ex. cbn [fst snd] in Ex.
    destruct (negb (j =? i)); [|discriminate].
    rewrite !rd_lt in Ex by (rewrite Lv; apply idx_lt; lia). cbn [bind] in Ex. injection Ex as Ex.
    apply tz_TF in Ex. apply Ex. apply esub_zero_iff.
    specialize (B i j). rewrite !val_MDense in B. apply B; lia.
Qed.

Lemma dense_is_symmetric_total m n v : length v = m * n -> exists t, dense_is_symmetric m n v = Ok t.
Proof.
  intros Lv. unfold dense_is_symmetric. destruct (Nat.eqb_spec m n) as [->|]; cbn [negb]; [|eauto].
  rewrite (loop_tri_ext _ (fun ij cur => do b <- chk_sym n v ij; Ok (and_tri cur b)))
    by (intros; apply chk_sym_step).
  destruct (loop_and_spec (chk_sym n v) (lower_pairs n) (chk_sym_def n v Lv)) as [[E _]|[E _]]; eauto.
Qed.

Definition sym_go (p : mexpr -> res tri) : list mexpr -> res tri :=
  fix go (l : list mexpr) : res tri :=
    match l with
    | [] => Ok TT
    | x :: r => do t <- p x; if is_true t then go r else Ok TI
    end.

Lemma sym_had_rule_eq p l : sym_had_rule p l = match l with [] => Ok TI | _ => sym_go p l end.
Proof. destruct l; reflexivity. Qed.

Lemma sym_go_spec p l t :
  sym_go p l = Ok t -> t <> TF /\ (t = TT -> forall x, In x l -> p x = Ok TT).
Proof.
  revert t. induction l as [|x l IH]; intros t H; cbn [sym_go] in H.
  - inversion H; subst. split; [discriminate | intros _ y []].
  - destruct (p x) as [tx| | |] eqn:Ex; cbn [bind] in H; try discriminate.
    destruct (is_true tx) eqn:E.
    + destruct tx; try discriminate. destruct (IH t H) as [A B]. split; [assumption|].
      intros Et y [<-|Hy]; [assumption | now apply B].
    + inversion H; subst. split; discriminate.
Qed.

Lemma sym_had_rule_spec p l t :
  sym_had_rule p l = Ok t -> t <> TF /\ (t = TT -> l <> [] /\ forall x, In x l -> p x = Ok TT).
Proof.
  rewrite sym_had_rule_eq. destruct l as [|x0 l0].
  - intros H; inversion H; subst. split; discriminate.
  - intros H. destruct (sym_go_spec p _ t H) as [A B]. split; [assumption|].
    intros Et. split; [discriminate | now apply B].
Qed.

Lemma eprod_map_ext {A} (f g : A -> ent) l :
  (forall x, In x l -> f x = g x) -> eprod (map f l) = eprod (map g l).
Proof.
  induction l as [|x r IH]; intros H; cbn [map]; [reflexivity|]. rewrite !eprod_cons.
  rewrite H by (now left). rewrite IH; [reflexivity|]. intros; apply H; now right.
Qed.

Theorem is_symmetric_sound rho e :
  wf e = true -> forall t, is_symmetric e = Ok t -> sound_answer t P_symmetric rho e.
Proof.
  intros Hwf t. rewrite is_symmetric_gpred. revert t.
  apply (gpred_sound P_symmetric dense_is_symmetric true); [..|exact Hwf]; clear.
  - intros rho n. split; [reflexivity|]. cbn [mr mc mf fst snd]. intros i j _ _.
    rewrite !val_MIdent. unfold delta. now rewrite Nat.eqb_sym.
  - intros rho d. split; [reflexivity|]. cbn [mr mc mf fst snd]. intros i j _ _.
    rewrite !val_MDiag, (Nat.eqb_sym j i). destruct (Nat.eqb_spec i j); [subst|]; reflexivity.
  - intros rho m n r c. split; [now intros [E _] | intros ->; split; reflexivity].
  - intros rho s ts Hne G. rewrite Forall_forall in G. split; cbn [mr mc mf].
    + destruct ts as [|x0 ?]; [congruence|]. now destruct (G x0 (or_introl eq_refl)).
    + intros i j Hi Hj. rewrite !val_MAdd. apply esum_map_ext. intros x Hin. now apply (G x Hin).
  - (* x = (l1 + x + l2) - l1 - l2, entry by entry *)
    intros rho s l1 x l2 G1 G2 [Sq HP]. rewrite Forall_forall in G1, G2. split; [exact Sq|]. cbn [mr mc mf] in *.
    intros i j Hi Hj. specialize (HP i j Hi Hj). rewrite !val_MAdd, !map_app, !esum_app in HP.
    cbn [map] in HP. rewrite !esum_cons in HP.
    rewrite (esum_map_ext (fun e => val rho e i j) (fun e => val rho e j i) l1) in HP
      by (intros y Hy; now apply (G1 y Hy)).
    rewrite (esum_map_ext (fun e => val rho e i j) (fun e => val rho e j i) l2) in HP
      by (intros y Hy; now apply (G2 y Hy)).
    set (a1 := esum (map (fun e => val rho e j i) l1)) in *.
    set (a2 := esum (map (fun e => val rho e j i) l2)) in *.
    assert (Hx : forall y, y = eadd (eadd (eadd a1 (eadd y a2)) (emul em1 a1)) (emul em1 a2)).
    { unfold em1. generalize a1 a2. intros [q1 q2] [r1 r2] [p1 p2].
      apply ent_eq; unfold eadd, emul, qc0, qc1; cbn [fst snd]; ring. }
    rewrite (Hx (val rho x i j)), HP. symmetry. apply Hx.
  - intros rho m n v t. apply dense_is_symmetric_sound.
  - intros p fs Ht. apply sym_had_rule_spec in Ht. now destruct Ht.
  - intros rho s p fs Ht G. apply sym_had_rule_spec in Ht. destruct Ht as [_ Ht].
    destruct (Ht eq_refl) as [Hne Hall]. split; cbn [mr mc mf].
    + destruct fs as [|x0 ?]; [congruence|]. now destruct (G x0 (or_introl eq_refl) (Hall x0 (or_introl eq_refl))).
    + intros i j Hi Hj. rewrite !val_MHad. apply eprod_map_ext. intros x Hin. now apply (G x Hin (Hall x Hin)).
Qed.
