(* C26 -- trace is sound (trace.cpp): the value of the returned scalar (number + symbolic
   dimensions + unevaluated Trace(...) terms) is the trace of the dense value. *)
From SE Require Import C26.MatSpec C26.MatLemmas.
From Coq Require Import Lia Ring.
Local Open Scope nat_scope.
Local Open Scope res_scope.

Definition base_of rho (t : texpr) : ent :=
  eadd (t_num t) (esum (map (fun s => e_of_nat (dimv rho s)) (t_dims t))).

Lemma tval_fold (tr : mexpr -> option ent) c l r :
  fold_right (fun e acc => match tr e, acc with Some x, Some y => Some (eadd x y) | _, _ => None end) (Some c) l = Some r <->
  exists xs, Forall2 (fun e x => tr e = Some x) l xs /\ r = eadd (esum xs) c.
Proof.
  revert r. induction l as [|e l IH]; intros r; cbn [fold_right].
  - split.
    + intros H; inversion H; subst. exists []. split; [constructor|]. rewrite esum_nil. ring.
    + intros (xs & H & ->). inversion H; subst. rewrite esum_nil. f_equal. ring.
  - destruct (tr e) as [x|] eqn:Ex.
    + destruct (fold_right _ (Some c) l) as [y|] eqn:Ey.
      * split.
        -- intros H; inversion H; subst. destruct (proj1 (IH y) eq_refl) as (xs & Hxs & ->).
           exists (x :: xs). split; [constructor; assumption|]. rewrite esum_cons. ring.
        -- intros (xs & H & ->). inversion H; subst. rewrite Ex in H2. inversion H2; subst.
           assert (Some y = Some (eadd (esum l') c)) by (apply IH; eauto). inversion H0; subst.
           rewrite esum_cons. f_equal. ring.
      * split; [discriminate|]. intros (xs & H & ->). inversion H; subst.
        assert (None = Some (eadd (esum l') c)) by (apply IH; eauto). discriminate.
    + split; [discriminate|]. intros (xs & H & _). inversion H; subst. congruence.
Qed.

Lemma tval_spec rho t tr r :
  tval rho t tr = Some r <->
  exists xs, Forall2 (fun e x => tr e = Some x) (t_traces t) xs /\ r = eadd (esum xs) (base_of rho t).
Proof. unfold tval. apply tval_fold. Qed.

Lemma tval_of_num rho q tr : tval rho (t_of_num q) tr = Some q.
Proof.
  apply tval_spec. exists []. split; [constructor|]. unfold base_of. cbn [t_of_num t_num t_dims map].
  rewrite !esum_nil. ring.
Qed.

Lemma tval_t_add rho a b tr x y :
  tval rho a tr = Some x -> tval rho b tr = Some y -> tval rho (t_add a b) tr = Some (eadd x y).
Proof.
  rewrite !tval_spec. intros (xs & Hx & ->) (ys & Hy & ->).
  exists (xs ++ ys). split; [cbn [t_add t_traces]; now apply Forall2_app|].
  unfold base_of. cbn [t_add t_num t_dims]. rewrite map_app, !esum_app. ring.
Qed.

Lemma tval_unevaluated rho e V :
  denote rho e = Some V -> mr V = mc V -> tval rho (t_unevaluated e) (trace_den rho) = Some (trace_of V).
Proof.
  intros HV Hsq. apply tval_spec. exists [trace_of V]. split.
  - cbn [t_unevaluated t_traces]. constructor; [|constructor].
    unfold trace_den. rewrite HV. apply Nat.eqb_eq in Hsq. now rewrite Hsq.
  - unfold base_of. cbn [t_unevaluated t_num t_dims map]. rewrite esum_cons, !esum_nil. ring.
Qed.

Lemma e_of_nat_S n : e_of_nat (S n) = eadd (e_of_nat n) e1.
Proof.
  apply ent_eq; unfold e_of_nat, eadd, e1; cbn [fst snd]; [|unfold qc0; ring].
  unfold Qcplus, qc1. apply Q2Qc_eq_iff. cbn [this Q2Qc].
  rewrite !Qred_correct. rewrite Nat2Z.inj_succ. unfold Z.succ. rewrite inject_Z_plus. reflexivity.
Qed.

Lemma esum_n_ones n : esum_n n (fun _ => e1) = e_of_nat n.
Proof.
  induction n as [|n IH].
  - unfold esum_n. cbn [seq map]. rewrite esum_nil. reflexivity.
  - rewrite esum_n_S, IH. symmetry. apply e_of_nat_S.
Qed.

Lemma trace_of_mk r c f : trace_of (mkmat r c f) = esum_n r (fun i => f i i).
Proof. reflexivity. Qed.

(* an expression returned as Trace(e) *)
Lemma unevaluated_ok rho e s :
  shp rho e = Some s -> fst s = snd s ->
  tval rho (t_unevaluated e) (trace_den rho) = Some (esum_n (fst s) (fun i => val rho e i i)).
Proof.
  intros Hs Hsq. rewrite <- (trace_of_mk (fst s) (snd s) (val rho e)). apply tval_unevaluated; [|exact Hsq].
  unfold denote. now rewrite Hs.
Qed.

Definition trace_ok rho (e : mexpr) : Prop :=
  forall t s, trace e = Ok t -> shp rho e = Some s -> fst s = snd s ->
    tval rho t (trace_den rho) = Some (esum_n (fst s) (fun i => val rho e i i)).

Lemma trace_fold rho s ts :
  fst s = snd s ->
  Forall (trace_ok rho) ts -> Forall (fun e => shp rho e = Some s) ts ->
  forall acc t a,
    foldM (fun acc t => do x <- trace t; Ok (t_add acc x)) ts acc = Ok t ->
    tval rho acc (trace_den rho) = Some a ->
    tval rho t (trace_den rho) = Some (eadd a (esum (map (fun e => esum_n (fst s) (fun i => val rho e i i)) ts))).
Proof.
  intros Hsq HI Hs. induction ts as [|x ts IH]; intros acc t a Hf Ha; cbn [foldM] in Hf.
  - inversion Hf; subst. cbn [map]. rewrite esum_nil, eadd_0_r. exact Ha.
  - destruct (trace x) as [tx| | |] eqn:Ex; cbn [bind] in Hf; try discriminate.
    inversion HI; subst. inversion Hs; subst.
    pose proof (H1 tx s Ex H3 Hsq) as Hx.
    rewrite (IH H2 H4 _ t _ Hf (tval_t_add rho acc tx _ _ _ Ha Hx)).
    cbn [map]. rewrite esum_cons. f_equal. ring.
Qed.

Theorem trace_sound_sem rho e : trace_ok rho e.
Proof.
  induction e as [n|m n|x|d|m n v|ts IH|k fs IH|fs IH|a IHa|a IHa] using mexpr_ind';
    intros t s Ht Hs Hsq; cbn [trace] in Ht.
  - (* identity *)
    rewrite shp_MIdent in Hs. inversion Hs; subst s. cbn [fst snd] in *.
    assert (Hv : esum_n (dval rho n) (fun i => val rho (MIdent n) i i) = e_of_nat (dval rho n)).
    { rewrite <- esum_n_ones. apply esum_n_ext. intros i _. rewrite val_MIdent. unfold delta. now rewrite Nat.eqb_refl. }
    rewrite Hv. destruct n as [k|sy]; inversion Ht; subst t.
    + apply tval_of_num.
    + apply tval_spec. exists []. split; [constructor|]. unfold base_of. cbn [t_num t_dims map dval].
      rewrite esum_cons, !esum_nil. ring.
  - (* zero *)
    rewrite shp_MZero in Hs. inversion Hs; subst s. cbn [fst snd] in *.
    assert (Hv : esum_n (dval rho m) (fun i => val rho (MZero m n) i i) = e0) by apply esum_n_zero.
    destruct (dim_diff_zero m n) eqn:E; try discriminate; inversion Ht; subst t.
    + rewrite Hv. apply tval_of_num.
    + now apply (unevaluated_ok rho (MZero m n) (dval rho m, dval rho n)).
  - injection Ht as <-. now apply unevaluated_ok.
  - (* diagonal *)
    inversion Ht; subst t. rewrite shp_MDiag in Hs. inversion Hs; subst s. cbn [fst snd] in *.
    rewrite tval_of_num. f_equal. rewrite esum_as_esum_n. apply esum_n_ext. intros i _.
    now rewrite val_MDiag, Nat.eqb_refl.
  - (* dense *)
    apply shp_MDense_Some in Hs. destruct Hs as [Lv ->]. cbn [fst snd] in *. subst n.
    rewrite Nat.eqb_refl in Ht. cbn [negb] in Ht.
    destruct (mapM (fun i => dget m v i i) (seq 0 m)) as [dg| | |] eqn:E; cbn [bind] in Ht; try discriminate.
    inversion Ht; subst t. rewrite tval_of_num. f_equal. rewrite esum_as_esum_n.
    pose proof (mapM_length _ _ _ E) as Ldg. rewrite seq_length in Ldg. rewrite Ldg.
    apply esum_n_ext. intros i Hi. rewrite val_MDense.
    pose proof (mapM_nth _ _ _ 0 e0 i E) as Hn. rewrite seq_length in Hn. specialize (Hn Hi).
    rewrite seq_nth in Hn by assumption. rewrite Nat.add_0_l in Hn. unfold dget in Hn.
    apply rd_nth in Hn. destruct Hn as [_ Hn]. now symmetry.
  - (* MatrixAdd *)
    rewrite shp_MAdd in Hs. apply shape_all_Forall in Hs. destruct Hs as [_ Hall].
    rewrite (trace_fold rho s ts Hsq IH Hall _ t e0 Ht (tval_of_num rho e0 _)).
    f_equal. rewrite eadd_0_l.
    (* swap the two sums *)
    rewrite (esum_n_ext _ _ (fun i => esum (map (fun e => val rho e i i) ts))) by (intros; apply val_MAdd).
    unfold esum_n. symmetry. apply esum_map_swap.
  - injection Ht as <-. now apply unevaluated_ok.
  - injection Ht as <-. now apply unevaluated_ok.
  - injection Ht as <-. now apply unevaluated_ok.
  - injection Ht as <-. now apply unevaluated_ok.
Qed.

Theorem trace_sound rho e t V :
  trace e = Ok t -> denote rho e = Some V -> mr V = mc V ->
  tval rho t (trace_den rho) = Some (trace_of V).
Proof.
  intros Ht HV Hsq. apply denote_Some in HV. destruct HV as (s & Hs & ->). cbn [mr mc] in Hsq.
  rewrite trace_of_mk. now apply trace_sound_sem.
Qed.

(* a DomainError of trace means that the value is not square *)
Theorem trace_error_sound rho e : forall s,
  trace e = ErrExn EXN_DOMAIN -> shp rho e = Some s -> fst s <> snd s.
Proof.
  induction e as [n|m n|x|d|m n v|ts IH|k fs IH|fs IH|a IHa|a IHa] using mexpr_ind';
    intros s Ht Hs; cbn [trace] in Ht; try discriminate.
  - destruct n; discriminate.
  - rewrite shp_MZero in Hs. inversion Hs; subst s. cbn [fst snd].
    destruct (dim_diff_zero m n) eqn:E; try discriminate. now apply dim_diff_zero_TF.
  - apply shp_MDense_Some in Hs. destruct Hs as [_ ->]. cbn [fst snd].
    destruct (Nat.eqb_spec m n); [|assumption]. cbn [negb] in Ht.
    destruct (mapM (fun i => dget n v i i) (seq 0 m)) eqn:E; cbn [bind] in Ht; try discriminate.
    exfalso. revert E. apply mapM_noexn. intros i. apply rd_noexn.
  - rewrite shp_MAdd in Hs. apply shape_all_Forall in Hs. destruct Hs as [_ Hall].
    revert Ht. generalize (t_of_num e0). induction ts as [|x ts IHts]; intros acc Ht; cbn [foldM] in Ht; [discriminate|].
    inversion IH; subst. inversion Hall; subst.
    destruct (trace x) as [tx| | |] eqn:Ex; cbn [bind] in Ht; try discriminate.
    + eapply IHts; eauto.
    + inversion Ht; subst. now apply H1.
Qed.
