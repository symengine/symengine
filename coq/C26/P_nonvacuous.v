(* C26: the hypotheses of the theorems are met by concrete non-trivial inputs, and the model
   computes on them (evaluated by the kernel): the operations succeed on operands of mixed classes,
   the naive computations are defined under a concrete environment, the guard of the matrix_mul
   theorem is false on a product with scalars, identities, diagonal and dense factors, and the
   predicates give definite answers of both kinds on well-formed expressions. *)
From SE Require Import C26.MatSpec.
Local Open Scope nat_scope.

Definition q (z : Z) : ent := (Q2Qc (inject_Z z), qc0).
Definition qi (a b : Z) : ent := (Q2Qc (inject_Z a), Q2Qc (inject_Z b)).
Definition rho0 : env := {| dimv := fun _ => 2; matv := fun _ => mkmat 2 2 (fun i j => qi 1 1) |}.
Definition A22 : mexpr := MDense 2 2 [q 1; q 2; q 3; q 4].
Definition ok_wf (r : res mexpr) : bool := match r with Ok e => wf e | _ => false end.

Definition add_terms : list mexpr := [MIdent (DSym 1); MDiag [q 1; qi 0 2]; MSym 1; A22; MZero (DInt 2) (DInt 2)].
Example C26_add_example :
  ok_wf (matrix_add add_terms) = true /\ shp rho0 (MAdd add_terms) = Some (2, 2).
Proof. split; vm_compute; reflexivity. Qed.

Definition mul_args : list marg :=
  [AScal (q 2); AMat (MIdent (DInt 2)); AMat (MDiag [q 1; q 3]); AMat A22; AMat (MSym 1); AScal (qi 0 1); AMat A22; AMat A22].
Example C26_mul_example :
  ok_wf (matrix_mul mul_args) = true /\ guard_mul_zero mul_args = false /\
  shp rho0 (naive_mul mul_args) = Some (2, 2).
Proof. repeat split; vm_compute; reflexivity. Qed.

Definition mul_zero_args : list marg := [AMat A22; AMat (MZero (DInt 2) (DInt 3)); AMat (MDense 3 1 [q 1; q 2; q 3])].
Example C26_mul_zero_example :
  ok_wf (matrix_mul mul_zero_args) = true /\ guard_mul_zero mul_zero_args = false /\
  shp rho0 (naive_mul mul_zero_args) = Some (2, 1).
Proof. repeat split; vm_compute; reflexivity. Qed.

Definition had_terms : list mexpr := [MIdent (DInt 2); A22; MSym 1; MDiag [q 2; q 5]].
Example C26_had_example :
  ok_wf (hadamard_product had_terms) = true /\ shp rho0 (MHad had_terms) = Some (2, 2).
Proof. split; vm_compute; reflexivity. Qed.

Definition tri_is (r : res tri) (t : tri) : bool :=
  match r, t with Ok TT, TT | Ok TF, TF | Ok TI, TI => true | _, _ => false end.

(* I + [[1,2],[2,5]] is symmetric, not diagonal; I o [[1,2],[3,4]] is diagonal and symmetric;
   a 1x3 dense matrix is Toeplitz (the case that crashed before the repair 2bc9483) *)
Example C26_pred_example :
  let e1 := MAdd [MIdent (DInt 2); MDense 2 2 [q 1; q 2; q 2; q 5]] in
  let e2 := MHad [MIdent (DInt 2); A22] in
  let e3 := MDense 1 3 [q 1; q 2; q 3] in
  wf e1 = true /\ wf e2 = true /\ wf e3 = true /\
  tri_is (is_symmetric e1) TT = true /\ tri_is (is_diagonal e1) TF = true /\
  tri_is (is_diagonal e2) TT = true /\ tri_is (is_symmetric e2) TI = true /\
  tri_is (is_lower (MAdd [MIdent (DInt 2); A22])) TF = true /\
  tri_is (is_toeplitz e3) TT = true /\ tri_is (is_toeplitz A22) TF = true /\
  shp rho0 e1 = Some (2, 2) /\ shp rho0 e2 = Some (2, 2).
Proof. repeat split; vm_compute; reflexivity. Qed.

Example C26_trace_example :
  match trace (MAdd [MIdent (DSym 1); A22; MSym 1]) with
  | Ok t => e_eqb (t_num t) (q 5) && (length (t_dims t) =? 1) && (length (t_traces t) =? 1)
  | _ => false
  end = true.
Proof. vm_compute. reflexivity. Qed.
Print Assumptions C26_mul_example.
