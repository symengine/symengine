(* C26 -- basic lemmas: induction on expressions and on the visitors mapped over them, entries, sums,
   the monadic loops of the model, the denotation of each constructor ([shp_X], [val_X]), how
   [sound_answer] is entered, and matrix_mul as a pipeline of stages. *)
From SE Require Import C26.MatSpec.
From Coq Require Import Lia Ring.
Local Open Scope nat_scope.
Local Open Scope res_scope.

Global Arguments eadd : simpl never.
Global Arguments emul : simpl never.
Global Arguments esub : simpl never.
Global Arguments econj : simpl never.
Global Arguments e_eqb : simpl never.
Global Arguments e_is_zero : simpl never.
Global Arguments e_is_one : simpl never.
Global Arguments e_is_real : simpl never.
Global Arguments e_of_nat : simpl never.
Global Arguments tz : simpl never.
Global Arguments trl : simpl never.
Global Arguments Nat.mul : simpl never.
Global Arguments Nat.add : simpl never.
Global Arguments Nat.sub : simpl never.

Section MexprInd.
  Variable P : mexpr -> Prop.
  Hypothesis HI : forall n, P (MIdent n).
  Hypothesis HZ : forall m n, P (MZero m n).
  Hypothesis HS : forall x, P (MSym x).
  Hypothesis HD : forall d, P (MDiag d).
  Hypothesis HM : forall m n v, P (MDense m n v).
  Hypothesis HA : forall ts, Forall P ts -> P (MAdd ts).
  Hypothesis HP : forall k fs, Forall P fs -> P (MMul k fs).
  Hypothesis HH : forall fs, Forall P fs -> P (MHad fs).
  Hypothesis HC : forall a, P a -> P (MConj a).
  Hypothesis HT : forall a, P a -> P (MTrans a).

  Fixpoint mexpr_ind' (e : mexpr) : P e :=
    match e with
    | MIdent n => HI n
    | MZero m n => HZ m n
    | MSym x => HS x
    | MDiag d => HD d
    | MDense m n v => HM m n v
    | MAdd ts => HA ts ((fix go (l : list mexpr) : Forall P l :=
                           match l with [] => Forall_nil _ | x :: r => Forall_cons _ (mexpr_ind' x) (go r) end) ts)
    | MMul k fs => HP k fs ((fix go (l : list mexpr) : Forall P l :=
                           match l with [] => Forall_nil _ | x :: r => Forall_cons _ (mexpr_ind' x) (go r) end) fs)
    | MHad fs => HH fs ((fix go (l : list mexpr) : Forall P l :=
                           match l with [] => Forall_nil _ | x :: r => Forall_cons _ (mexpr_ind' x) (go r) end) fs)
    | MConj a => HC a (mexpr_ind' a)
    | MTrans a => HT a (mexpr_ind' a)
    end.
End MexprInd.

Lemma qc_eqb_eq (a b : Qc) : qc_eqb a b = true <-> a = b.
Proof.
  unfold qc_eqb. rewrite Qeq_bool_iff. split.
  - apply Qc_is_canon.
  - intros ->. reflexivity.
Qed.

Lemma e_eqb_eq (a b : ent) : e_eqb a b = true <-> a = b.
Proof.
  unfold e_eqb. rewrite andb_true_iff, !qc_eqb_eq. destruct a, b; cbn. split.
  - intros [-> ->]; reflexivity.
  - intros H; inversion H; auto.
Qed.

Lemma e_is_zero_iff a : e_is_zero a = true <-> a = e0.
Proof. apply e_eqb_eq. Qed.
Lemma e_is_zero_false a : e_is_zero a = false <-> a <> e0.
Proof. rewrite <- e_is_zero_iff. destruct (e_is_zero a); split; congruence. Qed.
Lemma e_is_real_iff a : e_is_real a = true <-> snd a = qc0.
Proof. apply qc_eqb_eq. Qed.
Lemma e_is_real_false a : e_is_real a = false <-> snd a <> qc0.
Proof. rewrite <- e_is_real_iff. destruct (e_is_real a); split; congruence. Qed.

Lemma esub_zero_iff a b : esub a b = e0 <-> a = b.
Proof.
  unfold esub. split; intros H.
  - assert (E : a = eadd (eadd a (emul em1 b)) b).
    { destruct a, b; apply ent_eq; unfold eadd, emul, em1, qc0, qc1; cbn [fst snd]; ring. }
    rewrite E, H. ring.
  - subst. destruct b; apply ent_eq; unfold eadd, emul, em1, e0, qc0, qc1; cbn [fst snd]; ring.
Qed.

Lemma tz_TT a : tz a = TT <-> a = e0.
Proof. unfold tz, tri_of_bool. rewrite <- e_is_zero_iff. destruct (e_is_zero a); split; congruence. Qed.
Lemma tz_TF a : tz a = TF <-> a <> e0.
Proof. unfold tz, tri_of_bool. rewrite <- e_is_zero_false. destruct (e_is_zero a); split; congruence. Qed.
Lemma tz_cases a : tz a = TT \/ tz a = TF.
Proof. unfold tz, tri_of_bool. destruct (e_is_zero a); auto. Qed.

Lemma emul_0_l a : emul e0 a = e0. Proof. ring. Qed.
Lemma emul_0_r a : emul a e0 = e0. Proof. ring. Qed.
Lemma eadd_0_l a : eadd e0 a = a. Proof. ring. Qed.
Lemma eadd_0_r a : eadd a e0 = a. Proof. ring. Qed.
Lemma emul_1_l a : emul e1 a = a. Proof. ring. Qed.
Lemma emul_1_r a : emul a e1 = a. Proof. ring. Qed.

Lemma econj_add a b : econj (eadd a b) = eadd (econj a) (econj b).
Proof. destruct a, b; apply ent_eq; unfold econj, eadd; cbn [fst snd]; ring. Qed.
Lemma econj_mul a b : econj (emul a b) = emul (econj a) (econj b).
Proof. destruct a, b; apply ent_eq; unfold econj, emul; cbn [fst snd]; ring. Qed.
Lemma econj_0 : econj e0 = e0.
Proof. apply ent_eq; unfold econj, e0, qc0; cbn [fst snd]; ring. Qed.
Lemma econj_1 : econj e1 = e1.
Proof. apply ent_eq; unfold econj, e1, qc0, qc1; cbn [fst snd]; ring. Qed.

Lemma esum_nil : esum [] = e0. Proof. reflexivity. Qed.
Lemma esum_cons x l : esum (x :: l) = eadd x (esum l). Proof. reflexivity. Qed.
Lemma eprod_nil : eprod [] = e1. Proof. reflexivity. Qed.
Lemma eprod_cons x l : eprod (x :: l) = emul x (eprod l). Proof. reflexivity. Qed.
Global Arguments esum : simpl never.
Global Arguments eprod : simpl never.
Ltac sumsimp := cbn [app map]; rewrite ?esum_cons, ?esum_nil, ?eprod_cons, ?eprod_nil.

(* esum and eprod are [big eadd e0] and [big emul e1] *)
Definition big (op : ent -> ent -> ent) (u : ent) (l : list ent) : ent := fold_right op u l.

Lemma big_Forall2 {A B} op u (f : A -> ent) (g : B -> ent) l1 l2 :
  Forall2 (fun a b => f a = g b) l1 l2 -> big op u (map f l1) = big op u (map g l2).
Proof. unfold big. induction 1; cbn [map fold_right]; congruence. Qed.

Lemma big_hom op u (h : ent -> ent) l :
  (forall a b, h (op a b) = op (h a) (h b)) -> h u = u -> h (big op u l) = big op u (map h l).
Proof.
  intros Hop Hu. unfold big. induction l as [|x l IH]; cbn [map fold_right]; [exact Hu|]. now rewrite Hop, IH.
Qed.

Lemma esum_app l1 l2 : esum (l1 ++ l2) = eadd (esum l1) (esum l2).
Proof. induction l1 as [|x r IH]; sumsimp; [ring|]. rewrite IH. ring. Qed.

Lemma eprod_app l1 l2 : eprod (l1 ++ l2) = emul (eprod l1) (eprod l2).
Proof. induction l1 as [|x r IH]; sumsimp; [ring|]. rewrite IH. ring. Qed.

Lemma eprod_zero l : In e0 l -> eprod l = e0.
Proof.
  induction l as [|x r IH]; cbn [In]; [tauto|]. sumsimp.
  intros [->|H]; [ring|]. rewrite IH by assumption. ring.
Qed.

Lemma esum_map_ext {A} (f g : A -> ent) l :
  (forall x, In x l -> f x = g x) -> esum (map f l) = esum (map g l).
Proof.
  induction l as [|x r IH]; intros H; sumsimp; [reflexivity|].
  rewrite H by (now left). rewrite IH; [reflexivity|]. intros; apply H; now right.
Qed.

Lemma esum_map_add {A} (f g : A -> ent) l :
  esum (map (fun x => eadd (f x) (g x)) l) = eadd (esum (map f l)) (esum (map g l)).
Proof. induction l as [|x r IH]; sumsimp; [ring|]. rewrite IH. ring. Qed.

Lemma esum_map_scale_l {A} c (f : A -> ent) l :
  esum (map (fun x => emul c (f x)) l) = emul c (esum (map f l)).
Proof. induction l as [|x r IH]; sumsimp; [ring|]. rewrite IH. ring. Qed.

Lemma esum_map_scale_r {A} c (f : A -> ent) l :
  esum (map (fun x => emul (f x) c) l) = emul (esum (map f l)) c.
Proof. induction l as [|x r IH]; sumsimp; [ring|]. rewrite IH. ring. Qed.

Lemma esum_map_zero {A} (l : list A) : esum (map (fun _ => e0) l) = e0.
Proof. induction l as [|x r IH]; sumsimp; [reflexivity|]. rewrite IH. ring. Qed.

Lemma esum_map_swap {A B} (f : A -> B -> ent) la lb :
  esum (map (fun a => esum (map (fun b => f a b) lb)) la)
  = esum (map (fun b => esum (map (fun a => f a b) la)) lb).
Proof.
  induction la as [|a r IH]; sumsimp.
  - now rewrite esum_map_zero.
  - rewrite IH, <- esum_map_add. apply esum_map_ext. intros b _. reflexivity.
Qed.

Lemma esum_n_ext n f g : (forall k, k < n -> f k = g k) -> esum_n n f = esum_n n g.
Proof. intros H. apply esum_map_ext. intros x Hx. apply in_seq in Hx. apply H. lia. Qed.

Lemma esum_n_zero n : esum_n n (fun _ => e0) = e0.
Proof. apply esum_map_zero. Qed.

Lemma esum_n_add n f g : esum_n n (fun k => eadd (f k) (g k)) = eadd (esum_n n f) (esum_n n g).
Proof. apply esum_map_add. Qed.

Lemma esum_n_scale_l n c f : esum_n n (fun k => emul c (f k)) = emul c (esum_n n f).
Proof. apply esum_map_scale_l. Qed.

Lemma esum_n_scale_r n c f : esum_n n (fun k => emul (f k) c) = emul (esum_n n f) c.
Proof. apply esum_map_scale_r. Qed.

Lemma esum_n_swap n m f :
  esum_n n (fun k => esum_n m (fun l => f k l)) = esum_n m (fun l => esum_n n (fun k => f k l)).
Proof. apply esum_map_swap. Qed.

Lemma esum_n_S n f : esum_n (S n) f = eadd (esum_n n f) (f n).
Proof.
  unfold esum_n. rewrite seq_S, map_app, esum_app. sumsimp. rewrite Nat.add_0_l. ring.
Qed.

Lemma esum_as_esum_n (ts : list ent) : esum ts = esum_n (length ts) (fun k => nth k ts e0).
Proof.
  induction ts as [|t ts IH] using rev_ind; [reflexivity|].
  rewrite esum_app, app_length. cbn [length]. rewrite Nat.add_1_r, esum_n_S.
  rewrite esum_cons, esum_nil, IH. f_equal.
  - apply esum_n_ext. intros k Hk. now rewrite app_nth1.
  - rewrite app_nth2, Nat.sub_diag by lia. cbn. ring.
Qed.

(* sum of f k * [k = k0] *)
Lemma esum_n_delta_r n f k0 :
  esum_n n (fun k => emul (f k) (delta k k0)) = if k0 <? n then f k0 else e0.
Proof.
  induction n as [|n IH].
  - reflexivity.
  - rewrite esum_n_S, IH. unfold delta.
    destruct (Nat.ltb_spec k0 n), (Nat.ltb_spec k0 (S n)), (Nat.eqb_spec n k0); try lia; subst; ring.
Qed.

Lemma esum_n_delta_l n f k0 :
  esum_n n (fun k => emul (delta k0 k) (f k)) = if k0 <? n then f k0 else e0.
Proof.
  rewrite <- esum_n_delta_r. apply esum_n_ext. intros k _. unfold delta.
  rewrite (Nat.eqb_sym k0 k). ring.
Qed.

Lemma rd_Ok {A} (l : list A) i x : rd l i = Ok x <-> nth_error l i = Some x.
Proof. unfold rd, oob. destruct (nth_error l i); split; congruence. Qed.

Lemma rd_nth (l : list ent) i x : rd l i = Ok x -> i < length l /\ nth i l e0 = x.
Proof.
  rewrite rd_Ok. intros H. split.
  - apply nth_error_Some. congruence.
  - now apply nth_error_nth.
Qed.

Lemma rd_lt (l : list ent) i : i < length l -> rd l i = Ok (nth i l e0).
Proof.
  intros H. apply rd_Ok. apply nth_error_nth'. assumption.
Qed.

Lemma rd_ge {A} (l : list A) i : length l <= i -> rd l i = oob i (length l).
Proof. intros H. unfold rd. apply nth_error_None in H. now rewrite H. Qed.

Lemma mapM_Forall2 {A B} (f : A -> res B) l r :
  mapM f l = Ok r <-> Forall2 (fun x y => f x = Ok y) l r.
Proof.
  revert r. induction l as [|x l IH]; intros r; cbn.
  - split; intros H; [inversion H; constructor | inversion H; reflexivity].
  - destruct (f x) as [y| | |] eqn:E; cbn; try (split; intros H; [discriminate | inversion H; congruence]).
    destruct (mapM f l) as [ys| | |] eqn:E2; cbn;
      try (split; intros H; [discriminate | inversion H; subst; apply IH in H4; congruence]).
    split; intros H.
    + inversion H; subst. constructor; [assumption | now apply IH].
    + inversion H; subst. apply IH in H4. congruence.
Qed.

(* induction for a visitor that maps itself over the operands of MatrixAdd and HadamardProduct
   (transpose, conjugate_matrix): a relation between argument and result that holds at the other
   expressions and passes from the operands to the two nodes holds everywhere *)
Lemma mapped_ind (op : mexpr -> res mexpr) (R : mexpr -> mexpr -> Prop) :
  (forall ts, op (MAdd ts) = do t <- mapM op ts; Ok (MAdd t)) ->
  (forall fs, op (MHad fs) = do t <- mapM op fs; Ok (MHad t)) ->
  (forall ts t, Forall2 R ts t -> R (MAdd ts) (MAdd t)) ->
  (forall fs t, Forall2 R fs t -> R (MHad fs) (MHad t)) ->
  (forall e r, is_MAdd e = false -> is_MHad e = false -> op e = Ok r -> R e r) ->
  forall e r, op e = Ok r -> R e r.
Proof.
  intros HA HH RA RH Hleaf.
  assert (Hlist : forall l t, Forall (fun e => forall r, op e = Ok r -> R e r) l -> mapM op l = Ok t -> Forall2 R l t).
  { intros l t Hl E. apply mapM_Forall2 in E. induction E; inversion Hl; subst; constructor; auto. }
  induction e as [n|m n|x|d|m n v|ts IH|k fs IH|fs IH|a IHa|a IHa] using mexpr_ind'; intros r Ht;
    try (now apply Hleaf).
  - rewrite HA in Ht. destruct (mapM op ts) as [t| | |] eqn:E; cbn [bind] in Ht; try discriminate.
    injection Ht as <-. apply RA. now apply Hlist.
  - rewrite HH in Ht. destruct (mapM op fs) as [t| | |] eqn:E; cbn [bind] in Ht; try discriminate.
    injection Ht as <-. apply RH. now apply Hlist.
Qed.

Lemma mapM_length {A B} (f : A -> res B) l r : mapM f l = Ok r -> length r = length l.
Proof. rewrite mapM_Forall2. intros H. induction H; cbn; congruence. Qed.

Lemma mapM_nth {A B} (f : A -> res B) l r da db i :
  mapM f l = Ok r -> i < length l -> f (nth i l da) = Ok (nth i r db).
Proof.
  rewrite mapM_Forall2. intros H. revert i. induction H; intros i Hi; cbn in *; [lia|].
  destruct i; [assumption|]. apply IHForall2. lia.
Qed.

Lemma mapM_total {A B} (f : A -> res B) l :
  (forall x, In x l -> exists y, f x = Ok y) -> exists r, mapM f l = Ok r.
Proof.
  induction l as [|x l IH]; intros H; cbn.
  - eauto.
  - destruct (H x (or_introl eq_refl)) as [y ->]. cbn.
    destruct IH as [r ->]; [intros; apply H; now right|]. cbn. eauto.
Qed.

Lemma mapM_ext {A B} (f g : A -> res B) l :
  (forall x, In x l -> f x = g x) -> mapM f l = mapM g l.
Proof.
  induction l as [|x l IH]; intros H; cbn; [reflexivity|].
  rewrite H by (now left). rewrite IH; [reflexivity|]. intros; apply H; now right.
Qed.

(* row-major index of a position inside an m x n matrix *)
Lemma idx_lt m n i j : i < m -> j < n -> i * n + j < m * n.
Proof. nia. Qed.

(* row-major enumeration *)
Lemma list_prod_nth (m n i j : nat) :
  i < m -> j < n -> nth (i * n + j) (list_prod (seq 0 m) (seq 0 n)) (0, 0) = (i, j).
Proof.
  intros Hi Hj.
  assert (G : forall a, nth (i * n + j) (list_prod (seq a m) (seq 0 n)) (0, 0) = (a + i, j)).
  { revert i Hi. induction m as [|m IH]; intros i Hi a; [lia|].
    cbn [seq list_prod].
    destruct i as [|i].
    - cbn [Nat.mul Nat.add]. rewrite app_nth1 by (rewrite map_length, seq_length; assumption).
      rewrite (nth_indep _ (0,0) ((fun y => (a, y)) 0)) by (rewrite map_length, seq_length; assumption).
      rewrite map_nth, seq_nth by assumption. f_equal; lia.
    - rewrite app_nth2 by (rewrite map_length, seq_length; lia).
      rewrite map_length, seq_length.
      replace (S i * n + j - n) with (i * n + j) by lia.
      rewrite IH by lia. f_equal; lia. }
  apply G.
Qed.

Lemma tab2_length {B} m n (f : nat -> nat -> res B) r : tab2 m n f = Ok r -> length r = m * n.
Proof.
  unfold tab2. intros H. apply mapM_length in H. now rewrite H, prod_length, !seq_length.
Qed.

Lemma tab2_spec {B} (m n : nat) (f : nat -> nat -> res B) r d :
  tab2 m n f = Ok r ->
  length r = m * n /\ forall i j, i < m -> j < n -> f i j = Ok (nth (i * n + j) r d).
Proof.
  intros H. split; [now apply tab2_length in H|]. unfold tab2 in H.
  intros i j Hi Hj.
  pose proof (mapM_nth _ _ _ (0,0) d (i * n + j) H) as G.
  rewrite prod_length, !seq_length in G.
  rewrite list_prod_nth in G by assumption. cbn [fst snd] in G. apply G. now apply idx_lt.
Qed.

Lemma tab2_total {B} (m n : nat) (f : nat -> nat -> res B) :
  (forall i j, i < m -> j < n -> exists y, f i j = Ok y) -> exists r, tab2 m n f = Ok r.
Proof.
  intros H. apply mapM_total. intros [i j] Hin. apply in_prod_iff in Hin.
  destruct Hin as [Hi Hj]. apply in_seq in Hi. apply in_seq in Hj. cbn. apply H; lia.
Qed.

Lemma zipc_spec f a b i r :
  zipc f a b i = Ok r ->
  length r = length a /\ i + length a <= length b + (if length a =? 0 then i else 0) /\
  forall k, k < length a -> nth k r e0 = f (nth k a e0) (nth (i + k) b e0).
Proof.
  revert i r. induction a as [|x a IH]; intros i r; cbn.
  - intros H; inversion H; subst. cbn. split; [reflexivity|]. split; [lia|]. intros; lia.
  - destruct (rd b i) as [y| | |] eqn:E; cbn; try discriminate.
    destruct (zipc f a b (S i)) as [r'| | |] eqn:E2; cbn; try discriminate.
    intros H; inversion H; subst. apply IH in E2. destruct E2 as (L & Hb & Hn).
    apply rd_nth in E. destruct E as [Ei Ey].
    split; [cbn; lia|]. split.
    + destruct (length a =? 0) eqn:Z.
      * apply Nat.eqb_eq in Z. lia.
      * lia.
    + intros k Hk. destruct k; cbn.
      * rewrite Nat.add_0_r. now rewrite Ey.
      * rewrite Hn by lia. f_equal. f_equal. lia.
Qed.

Lemma zipc_total f a b i : i + length a <= length b -> exists r, zipc f a b i = Ok r.
Proof.
  revert i. induction a as [|x a IH]; intros i H; cbn in *.
  - eauto.
  - rewrite rd_lt by lia. cbn. destruct (IH (S i)) as [r ->]; [lia|]. cbn. eauto.
Qed.

Lemma zipc0_spec f a b r :
  zipc f a b 0 = Ok r -> length a = length b ->
  length r = length a /\ forall k, nth k r e0 = if k <? length a then f (nth k a e0) (nth k b e0) else e0.
Proof.
  intros H L. apply zipc_spec in H. destruct H as (Lr & _ & Hn). split; [assumption|].
  intros k. destruct (Nat.ltb_spec k (length a)).
  - now rewrite Hn.
  - apply nth_overflow. lia.
Qed.

Lemma foldM_app {A S} (f : S -> A -> res S) l1 l2 s :
  foldM f (l1 ++ l2) s = (do s' <- foldM f l1 s; foldM f l2 s').
Proof.
  revert s. induction l1 as [|x l1 IH]; intros s; cbn; [reflexivity|].
  destruct (f s x); cbn; auto.
Qed.

(* a loop invariant for foldM, over the prefix processed so far *)
Lemma foldM_inv {A S} (f : S -> A -> res S) (I : list A -> S -> Prop) l s s' :
  I [] s -> foldM f l s = Ok s' ->
  (forall q x r s0 s1, l = q ++ x :: r -> I q s0 -> f s0 x = Ok s1 -> I (q ++ [x]) s1) ->
  I l s'.
Proof.
  intros H0 Hf Hstep.
  enough (G : forall r q s0, l = q ++ r -> I q s0 -> foldM f r s0 = Ok s' -> I l s') by (apply (G l [] s); auto).
  induction r as [|x r IH]; intros q s0 El Hq Hr; cbn [foldM] in Hr.
  - injection Hr as <-. now rewrite El, app_nil_r.
  - destruct (f s0 x) as [s1| | |] eqn:E; cbn [bind] in Hr; try discriminate.
    apply (IH (q ++ [x]) s1); [now rewrite <- app_assoc | eapply Hstep; eauto | exact Hr].
Qed.

(* the reads of the model fail with ErrOOB, never with an exception *)
Lemma rd_noexn {A} (l : list A) i c : rd l i <> ErrExn c.
Proof. unfold rd, oob. destruct (nth_error l i); discriminate. Qed.

Lemma bind_noexn {A B} (r : res A) (f : A -> res B) c :
  r <> ErrExn c -> (forall x, f x <> ErrExn c) -> (do x <- r; f x) <> ErrExn c.
Proof. intros Hr Hf. destruct r; cbn [bind]; [apply Hf | congruence ..]. Qed.

Lemma mapM_noexn {A B} (f : A -> res B) l c : (forall x, f x <> ErrExn c) -> mapM f l <> ErrExn c.
Proof.
  intros H. induction l as [|x l IH]; cbn [mapM]; [discriminate|].
  apply bind_noexn; [apply H|]. intros y. apply bind_noexn; [exact IH | discriminate].
Qed.

Lemma tab2_noexn {B} m n (f : nat -> nat -> res B) c : (forall i j, f i j <> ErrExn c) -> tab2 m n f <> ErrExn c.
Proof. intros H. apply mapM_noexn. intros [i j]. apply H. Qed.

Lemma foldM_noexn {A S} (f : S -> A -> res S) l s c :
  (forall s x, f s x <> ErrExn c) -> foldM f l s <> ErrExn c.
Proof.
  intros H. revert s. induction l as [|x l IH]; intros s; cbn [foldM]; [discriminate|].
  apply bind_noexn; [apply H | exact IH].
Qed.

Lemma zipc_noexn f a b i c : zipc f a b i <> ErrExn c.
Proof.
  revert i. induction a as [|x a IH]; intros i; cbn [zipc]; [discriminate|].
  apply bind_noexn; [apply rd_noexn|]. intros y. apply bind_noexn; [apply IH | discriminate].
Qed.

Lemma shape_eqb_eq a b : shape_eqb a b = true <-> a = b.
Proof.
  unfold shape_eqb. rewrite andb_true_iff, !Nat.eqb_eq. destruct a, b; cbn. split.
  - intros [-> ->]; reflexivity.
  - intros H; inversion H; auto.
Qed.

Lemma shape_all_Some l s :
  shape_all l = Some s <-> l <> [] /\ Forall (fun x => x = Some s) l.
Proof.
  induction l as [|x l IH]; cbn.
  - split; [discriminate | intros [H _]; congruence].
  - destruct l as [|y l'].
    + split.
      * intros ->. split; [discriminate | repeat constructor].
      * intros [_ H]. inversion H; subst. reflexivity.
    + destruct x as [a|].
      2:{ split; [discriminate | intros [_ H]; inversion H; discriminate]. }
      destruct (shape_all (y :: l')) as [b|] eqn:E.
      * destruct (shape_eqb a b) eqn:Eb.
        -- apply shape_eqb_eq in Eb. subst b. split.
           ++ intros H; inversion H; subst. split; [discriminate|]. constructor; [reflexivity|].
              apply IH. reflexivity.
           ++ intros [_ H]. inversion H; subst. congruence.
        -- split; [discriminate|]. intros [_ H]. inversion H; subst. inversion H2; subst.
           assert (Some b = Some s) by (apply IH; split; [discriminate | assumption]).
           inversion H0; subst. rewrite (proj2 (shape_eqb_eq s s) eq_refl) in Eb. discriminate.
      * split; [discriminate|]. intros [_ H]. inversion H; subst.
        assert (None = Some s) by (apply IH; split; [discriminate | assumption]). discriminate.
Qed.

Lemma shape_all_app_Some l1 l2 s :
  l1 <> [] -> l2 <> [] ->
  (shape_all (l1 ++ l2) = Some s <-> shape_all l1 = Some s /\ shape_all l2 = Some s).
Proof.
  intros H1 H2. rewrite !shape_all_Some, Forall_app. split.
  - intros [_ [A B]]. auto.
  - intros [[_ A] [_ B]]. split; [|auto]. destruct l1; [congruence | discriminate].
Qed.

Lemma shp_MIdent rho n : shp rho (MIdent n) = Some (dval rho n, dval rho n).
Proof. reflexivity. Qed.
Lemma val_MIdent rho n i j : val rho (MIdent n) i j = delta i j.
Proof. reflexivity. Qed.
Lemma shp_MZero rho m n : shp rho (MZero m n) = Some (dval rho m, dval rho n).
Proof. reflexivity. Qed.
Lemma val_MZero rho m n i j : val rho (MZero m n) i j = e0.
Proof. reflexivity. Qed.
Lemma shp_MDiag rho d : shp rho (MDiag d) = Some (length d, length d).
Proof. reflexivity. Qed.
Lemma val_MDiag rho d i j : val rho (MDiag d) i j = if i =? j then nth i d e0 else e0.
Proof. reflexivity. Qed.
Lemma shp_MDense rho m n v : shp rho (MDense m n v) = if length v =? m * n then Some (m, n) else None.
Proof. reflexivity. Qed.
Lemma val_MDense rho m n v i j : val rho (MDense m n v) i j = nth (i * n + j) v e0.
Proof. reflexivity. Qed.
Lemma shp_MAdd rho ts : shp rho (MAdd ts) = shape_all (map (shp rho) ts).
Proof. unfold shp. cbn [sem fst]. now rewrite map_map. Qed.
Lemma val_MAdd rho ts i j : val rho (MAdd ts) i j = esum (map (fun e => val rho e i j) ts).
Proof. unfold val. cbn [sem snd]. now rewrite map_map. Qed.
Lemma shp_MHad rho ts : shp rho (MHad ts) = shape_all (map (shp rho) ts).
Proof. unfold shp. cbn [sem fst]. now rewrite map_map. Qed.
Lemma val_MHad rho ts i j : val rho (MHad ts) i j = eprod (map (fun e => val rho e i j) ts).
Proof. unfold val. cbn [sem snd]. now rewrite map_map. Qed.
Lemma shp_MMul rho k fs : shp rho (MMul k fs) = shape_chain (map (shp rho) fs).
Proof. unfold shp. cbn [sem fst]. now rewrite map_map. Qed.

Lemma shp_MDense_Some rho m n v s :
  shp rho (MDense m n v) = Some s -> length v = m * n /\ s = (m, n).
Proof.
  rewrite shp_MDense. destruct (Nat.eqb_spec (length v) (m * n)); [|discriminate].
  intros H; inversion H; auto.
Qed.

Lemma shape_all_Forall rho (l : list mexpr) s :
  shape_all (map (shp rho) l) = Some s <-> l <> [] /\ Forall (fun e => shp rho e = Some s) l.
Proof.
  rewrite shape_all_Some, Forall_map. destruct l; [|split; intros [_ H]; (split; [discriminate | exact H])].
  split; intros [H _]; now destruct H.
Qed.

Lemma denote_Some rho e V :
  denote rho e = Some V <-> exists s, shp rho e = Some s /\ V = mkmat (fst s) (snd s) (val rho e).
Proof.
  unfold denote. destruct (shp rho e) as [s|]; split.
  - intros H; inversion H; eauto.
  - intros (s' & E & ->). inversion E; reflexivity.
  - discriminate.
  - intros (s' & E & _). discriminate.
Qed.

(* an answer is sound when it is right about the matrix of entries inside the shape *)
Lemma sound_answer_intro t (P : mat -> Prop) rho e :
  (forall s, shp rho e = Some s ->
     let V := mkmat (fst s) (snd s) (val rho e) in (t = TT -> P V) /\ (t = TF -> ~ P V)) ->
  sound_answer t P rho e.
Proof. intros H V HV. apply denote_Some in HV. destruct HV as (s & Hs & ->). now apply H. Qed.

Lemma sound_answer_TI P rho e : sound_answer TI P rho e.
Proof. intros V _. split; discriminate. Qed.


Lemma dim_diff_zero_TT rho a b : dim_diff_zero a b = TT -> dval rho a = dval rho b.
Proof.
  destruct a as [x|s], b as [y|t]; cbn [dim_diff_zero]; try discriminate.
  - unfold tri_of_bool. destruct (Nat.eqb_spec x y); [intros _; cbn; congruence | discriminate].
  - destruct (Nat.eqb_spec s t); [intros _; cbn; congruence | discriminate].
Qed.

Lemma dim_diff_zero_TF rho a b : dim_diff_zero a b = TF -> dval rho a <> dval rho b.
Proof.
  destruct a as [x|s], b as [y|t]; cbn [dim_diff_zero]; try discriminate.
  - unfold tri_of_bool. destruct (Nat.eqb_spec x y); [discriminate | intros _; cbn; congruence].
  - destruct (s =? t); discriminate.
Qed.

Lemma wf_MDense m n v : wf (MDense m n v) = true <-> 1 <= m /\ 1 <= n /\ length v = m * n.
Proof. cbn [wf]. rewrite !andb_true_iff, !Nat.leb_le, Nat.eqb_eq. tauto. Qed.

Lemma wf_MDiag d : wf (MDiag d) = true <-> d <> [].
Proof. cbn [wf]. rewrite negb_true_iff, Nat.eqb_neq. destruct d; cbn; split; intros; try congruence; try lia; discriminate. Qed.

Lemma forallb_Forall {A} (f : A -> bool) l : forallb f l = true <-> Forall (fun x => f x = true) l.
Proof. rewrite forallb_forall, Forall_forall. reflexivity. Qed.

Definition mul_init : mul_state := {| m_keep := []; m_diag := None; m_dense := None; m_ident := None |}.

(* after the loop: an identity matrix is put back when nothing else is left, and a single operand
   with scalar 1 is returned as it is *)
Definition mul_rebuild (scalar : ent) (st : mul_state) : mexpr :=
  let keep := match flush st, m_ident st with
              | [], Some n => [MIdent n]
              | k, _ => k
              end in
  match keep with
  | [x] => if e_eqb scalar e1 then x else MMul scalar keep
  | _ => MMul scalar keep
  end.

(* the general branch of matrix_mul (two or more arguments) *)
Definition mul_body (args : list marg) : res mexpr :=
  let '(scalar, expanded) := expand_mul args e1 [] in
  do _ <- check_matching_mul_sizes expanded;
  match first_zero_arg args with
  | Some z => Ok (zero_result expanded z)
  | None => do st <- foldM mul_step expanded mul_init; Ok (mul_rebuild scalar st)
  end.

Lemma matrix_mul_eq args :
  matrix_mul args = match args with
                    | [] => ErrExn EXN_DOMAIN
                    | [AMat e] => Ok e
                    | [AScal _] => ErrExn EXN_PRECOND
                    | _ => mul_body args
                    end.
Proof.
  assert (R : forall scalar st,
    (let keep := match flush st, m_ident st with [], Some n => [MIdent n] | k, _ => k end in
     match keep with
     | [x] => if e_eqb scalar e1 then Ok x else Ok (MMul scalar keep)
     | _ => Ok (MMul scalar keep)
     end) = Ok (mul_rebuild scalar st)).
  { intros scalar st. unfold mul_rebuild. cbv zeta.
    destruct (match flush st, m_ident st with [], Some n => [MIdent n] | k, _ => k end) as [|x [|y l]];
      try reflexivity. destruct (e_eqb scalar e1); reflexivity. }
  destruct args as [|[q|e] [|a r]]; try reflexivity; unfold matrix_mul, mul_body;
    (destruct (expand_mul _ _ _) as [scalar expanded];
     destruct (check_matching_mul_sizes expanded); try reflexivity; cbn [bind];
     destruct (first_zero_arg _); try reflexivity; fold mul_init;
     destruct (foldM mul_step expanded mul_init); try reflexivity; apply R).
Qed.

(* from equal entries inside equal shapes to the statement about dense values *)
Lemma value_to_denote rho res e :
  (forall s, shp rho e = Some s ->
     shp rho res = Some s /\ forall i j, i < fst s -> j < snd s -> val rho res i j = val rho e i j) ->
  same_value rho res e.
Proof.
  intros H V HV. apply denote_Some in HV. destruct HV as (s & Hs & ->).
  destruct (H s Hs) as [A B]. exists (mkmat (fst s) (snd s) (val rho res)). split.
  - unfold denote. now rewrite A.
  - split; [reflexivity|]. split; [reflexivity|]. exact B.
Qed.
