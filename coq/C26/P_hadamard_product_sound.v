(* C26 obligation: whenever hadamard_product returns an expression, it denotes the entrywise
   product of the operands' dense values (all environments, any number of operands). *)
From SE Require Import C26.MatSpec C26.MatHadProofs.
Theorem C26_hadamard_product_sound :
  forall (rho : env) (fs : list mexpr) (res : mexpr),
    hadamard_product fs = Ok res ->
    forall V, denote rho (MHad fs) = Some V -> exists V', denote rho res = Some V' /\ meq V' V.
Proof. exact hadamard_product_sound. Qed.
Print Assumptions C26_hadamard_product_sound.
