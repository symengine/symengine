(* C26 -- a DomainError ("Matrix dimension mismatch" / empty operand list) is never spurious:
   when matrix_add, hadamard_product or matrix_mul throw it, the dense computation is undefined
   under every environment.  For matrix_mul this covers the size check of adjacent factors and the
   guards of the four folding helpers (mul_diag_diag, mul_dense_dense, mul_diag_dense, mul_dense_diag),
   which compare the accumulated concrete product with the next concrete factor. *)
From SE Require Import C26.MatSpec C26.MatLemmas C26.MatUnaryProofs C26.MatFold C26.MatAddProofs C26.MatHadProofs
  C26.MatMulAlg C26.MatMulProofs.
From Coq Require Import Lia.
Local Open Scope nat_scope.
Local Open Scope res_scope.

Lemma forM_fail {A} (f : A -> res unit) l c :
  forM_ f l = ErrExn c -> exists x, In x l /\ f x = ErrExn c.
Proof.
  induction l as [|x l IH]; cbn [forM_]; [discriminate|].
  destruct (f x) as [[]| | |] eqn:E; cbn [bind]; try discriminate.
  - intros H. destruct (IH H) as (y & Hy & Ey). exists y. split; [now right | assumption].
  - intros H. inversion H; subst. exists x. split; [now left | assumption].
Qed.

Lemma dim_pair_fail rho a b c :
  dim_pair_check a b = ErrExn c ->
  exists x y, a = Some x /\ b = Some y /\ dval rho x <> dval rho y.
Proof.
  unfold dim_pair_check. destruct a as [x|], b as [y|]; try discriminate.
  destruct (dim_diff_zero x y) eqn:E; cbn [is_false]; try discriminate.
  intros _. exists x, y. repeat split. now apply dim_diff_zero_TF.
Qed.

(* a failed comparison: the two operands have different shapes under every environment *)
Lemma size_pair_fail rho x y s c :
  size_pair_check (size x) (size y) = ErrExn c ->
  shp rho x = Some s -> shp rho y = Some s -> False.
Proof.
  intros H Hx Hy. unfold size_pair_check in H.
  destruct (size_sound rho x s Hx) as [X1 X2]. destruct (size_sound rho y s Hy) as [Y1 Y2].
  destruct (dim_pair_check (fst (size x)) (fst (size y))) as [[]| | |] eqn:E1; cbn [bind] in H; try discriminate.
  - apply (dim_pair_fail rho) in H. destruct H as (a & b & Ea & Eb & Hab).
    rewrite (X2 a Ea), (Y2 b Eb) in Hab. congruence.
  - apply (dim_pair_fail rho) in E1. destruct E1 as (a & b & Ea & Eb & Hab).
    rewrite (X1 a Ea), (Y1 b Eb) in Hab. congruence.
Qed.

Lemma in_removelast' {A} (l : list A) x : In x (removelast l) -> In x l.
Proof.
  induction l as [|y l IH]; [intros []|]. destruct l as [|z l]; [intros []|].
  change (removelast (y :: z :: l)) with (y :: removelast (z :: l)). intros [->|H]; [now left | right; now apply IH].
Qed.

Lemma check_fail_sound rho vec c :
  check_matching_sizes vec = ErrExn c -> shape_all (map (shp rho) vec) = None.
Proof.
  intros H. destruct (shape_all (map (shp rho) vec)) as [s|] eqn:E; [|reflexivity]. exfalso.
  apply shape_all_Forall in E. destruct E as [_ Hall]. rewrite Forall_forall in Hall.
  unfold check_matching_sizes in H. apply forM_fail in H. destruct H as (fs & Hfs & H).
  apply forM_fail in H. destruct H as (ss & Hss & H).
  apply in_removelast' in Hfs. apply in_map_iff in Hfs. destruct Hfs as (x & <- & Hx).
  assert (Hss' : In ss (map size vec)) by (destruct (map size vec); [destruct Hss | now right]).
  apply in_map_iff in Hss'. destruct Hss' as (y & <- & Hy).
  eapply size_pair_fail; eauto.
Qed.

(* reads of the loops fail with ErrOOB, never with an exception: the size check is the only source *)
Lemma rd_rd_noexn {A B C} (a : list A) i (b : list B) j (k : A -> B -> C) c :
  (do x <- rd a i; do y <- rd b j; Ok (k x y)) <> ErrExn c.
Proof. apply bind_noexn; [apply rd_noexn|]. intros x. apply bind_noexn; [apply rd_noexn | discriminate]. Qed.

Lemma merge_add_noexn d m n v c : merge_add d m n v <> ErrExn c.
Proof.
  unfold merge_add, add_diag_dense, dget. apply bind_noexn; [|discriminate].
  apply tab2_noexn. intros i j. destruct (i =? j); [apply rd_rd_noexn | apply rd_noexn].
Qed.

Lemma merge_had_noexn d m n v c : merge_had d m n v <> ErrExn c.
Proof.
  unfold merge_had, had_dense_diag, dget. apply bind_noexn; [|discriminate].
  apply mapM_noexn. intros i. apply rd_rd_noexn.
Qed.

Lemma add_step_noexn st x c : add_step st x <> ErrExn c.
Proof. rewrite add_step_eq. destruct x; try discriminate; (apply bind_noexn; [apply gstep_noexn | discriminate]). Qed.

Lemma had_step_noexn st x c : had_step st x <> ErrExn c.
Proof.
  rewrite had_step_eq. destruct x; try discriminate; try (apply bind_noexn; [apply gstep_noexn | discriminate]).
  destruct (h_ident st); discriminate.
Qed.

Lemma had_loop_noexn l st c : had_loop l st <> ErrExn c.
Proof.
  revert st. induction l as [|x l IH]; intros st; cbn [had_loop]; [discriminate|].
  apply bind_noexn; [apply had_step_noexn|]. intros [z|st1]; [discriminate | apply IH].
Qed.

Lemma matrix_add_exn terms c :
  matrix_add terms = ErrExn c -> terms = [] \/ check_matching_sizes (flatten_add terms) = ErrExn c.
Proof.
  rewrite matrix_add_eq. destruct terms as [|t0 [|t1 r]]; [now left | discriminate|]. intros H. right.
  destruct (check_matching_sizes _) as [[]| | |]; cbn [bind] in H; try discriminate; [exfalso | now injection H as ->].
  revert H. apply bind_noexn; [apply foldM_noexn; intros; apply add_step_noexn|]. intros st.
  apply bind_noexn; [apply gfinish_noexn; intros; apply merge_add_noexn | discriminate].
Qed.

Lemma hadamard_product_exn fs c :
  hadamard_product fs = ErrExn c -> fs = [] \/ check_matching_sizes (flatten_had fs) = ErrExn c.
Proof.
  rewrite hadamard_product_eq. destruct fs as [|t0 [|t1 r]]; [now left | discriminate|]. intros H. right.
  destruct (check_matching_sizes _) as [[]| | |]; cbn [bind] in H; try discriminate; [exfalso | now injection H as ->].
  revert H. apply bind_noexn; [apply had_loop_noexn|]. intros [z|st]; [discriminate|].
  apply bind_noexn; [apply gfinish_noexn; intros; apply merge_had_noexn | discriminate].
Qed.

(* flattening keeps a defined shape, so a size check that fails on the flattened operands refutes the shape of the node *)
Lemma flat_check_fail rho N is_N flat terms c :
  (forall t, (is_N t = false /\ flat t = [t]) \/ (exists ts, t = N ts /\ flat t = ts)) ->
  (forall l, shp rho (N l) = shape_all (map (shp rho) l)) ->
  check_matching_sizes (flat_map flat terms) = ErrExn c -> shape_all (map (shp rho) terms) = None.
Proof.
  intros Hflat HN H. apply (check_fail_sound rho) in H.
  destruct (shape_all (map (shp rho) terms)) eqn:E; [|reflexivity].
  apply (flatten_shape N is_N flat Hflat rho HN) in E. congruence.
Qed.

Theorem matrix_add_error_sound rho terms :
  matrix_add terms = ErrExn EXN_DOMAIN -> shp rho (MAdd terms) = None.
Proof.
  intros H. rewrite shp_MAdd. apply matrix_add_exn in H. destruct H as [->|H]; [reflexivity|].
  exact (flat_check_fail rho MAdd is_MAdd flat_add terms _ flat_add_spec (shp_MAdd rho) H).
Qed.

Theorem hadamard_product_error_sound rho fs :
  hadamard_product fs = ErrExn EXN_DOMAIN -> shp rho (MHad fs) = None.
Proof.
  intros H. rewrite shp_MHad. apply hadamard_product_exn in H. destruct H as [->|H]; [reflexivity|].
  exact (flat_check_fail rho MHad is_MHad flat_had fs _ flat_had_spec (shp_MHad rho) H).
Qed.

Lemma check_mul_rest_fail rho : forall rest first c,
  check_mul_rest (map size rest) (size first) = ErrExn c ->
  shape_chain (map (shp rho) (first :: rest)) = None.
Proof.
  induction rest as [|y rest IH]; intros first c H; cbn [map check_mul_rest] in H; [discriminate|].
  change (map (shp rho) (first :: y :: rest)) with (shp rho first :: shp rho y :: map (shp rho) rest).
  rewrite shape_chain_cons.
  destruct (prod_shape (shp rho first) (shape_chain (shp rho y :: map (shp rho) rest))) as [s|] eqn:E; [|reflexivity].
  exfalso. apply prod_shape_Some in E. destruct E as (sa & sb & A & B & C & _).
  change (shp rho y :: map (shp rho) rest) with (map (shp rho) (y :: rest)) in B.
  assert (Hy : exists sy, shp rho y = Some sy /\ fst sy = fst sb).
  { apply shape_chain_Some in B. destruct B as (a & b & Hh & _ & Ha & _). cbn [map hd] in Hh. eauto. }
  destruct Hy as (sy & Hy & Hy').
  (* the failure is at this pair, or further on *)
  assert (Hrest : check_mul_rest (map size rest) (size y) = ErrExn c -> False)
    by (intros H'; rewrite (IH y c H') in B; discriminate).
  destruct (snd (size first)) as [cc|] eqn:Ec; [|now apply Hrest].
  destruct (fst (size y)) as [rr|] eqn:Er; [|now apply Hrest].
  destruct (dim_diff_zero cc rr) eqn:Ed; cbn [is_false] in H; try now apply Hrest.
  apply (dim_diff_zero_TF rho) in Ed.
  destruct (size_sound rho first sa A) as [_ X]. destruct (size_sound rho y sy Hy) as [Y _].
  rewrite (X cc Ec), (Y rr Er) in Ed. congruence.
Qed.

Lemma check_mul_fail_sound rho l :
  check_matching_mul_sizes l = ErrExn EXN_DOMAIN -> shape_chain (map (shp rho) l) = None.
Proof.
  unfold check_matching_mul_sizes. destruct l as [|x l]; [reflexivity|]. cbn [map]. apply check_mul_rest_fail.
Qed.

(* the folding helpers throw only from their size guard *)
Lemma guarded_tab_exn g m n f c :
  (forall i j, f i j <> ErrExn c) -> guarded_tab g m n f = ErrExn c -> g = false.
Proof.
  intros Hf. unfold guarded_tab. destruct g; [|reflexivity]. cbn [negb]. intros H. exfalso. revert H.
  apply bind_noexn; [now apply tab2_noexn | discriminate].
Qed.

Lemma mul_diag_diag_exn a b c : mul_diag_diag a b = ErrExn c -> length a <> length b.
Proof.
  unfold mul_diag_diag. destruct (Nat.eqb_spec (length a) (length b)) as [E|E]; cbn [negb]; [|auto].
  intros H. now apply zipc_noexn in H.
Qed.

Lemma mul_dense_diag_exn m n v d c : mul_dense_diag m n v d = ErrExn c -> length d <> n.
Proof. intros H. apply Nat.eqb_neq. revert H. apply guarded_tab_exn. intros i j. apply rd_rd_noexn. Qed.

Lemma mul_diag_dense_exn d0 m n v c : mul_diag_dense d0 m n v = ErrExn c -> length d0 <> m.
Proof. intros H. apply Nat.eqb_neq. revert H. apply guarded_tab_exn. intros i j. apply rd_rd_noexn. Qed.

Lemma mul_dense_dense_exn m0 n0 v0 m n v c : mul_dense_dense m0 n0 v0 m n v = ErrExn c -> n0 <> m.
Proof.
  intros H. apply Nat.eqb_neq. revert H. apply guarded_tab_exn. intros i j.
  apply foldM_noexn. intros acc k. apply rd_rd_noexn.
Qed.

(* the product of two concrete leaves throws only when their sizes do not fit *)
Lemma mul_concrete_exn rho a b c sa sb :
  concrete a = true -> concrete b = true -> mul_concrete a b = ErrExn c ->
  shp rho a = Some sa -> shp rho b = Some sb -> snd sa <> fst sb.
Proof.
  destruct a; try discriminate; destruct b; try discriminate; intros _ _ H A B; cbn [mul_concrete] in H.
  - rewrite shp_MDiag in A, B. injection A as <-. injection B as <-.
    destruct (mul_diag_diag d d0) eqn:Em; cbn [bind] in H; try discriminate. now apply mul_diag_diag_exn in Em.
  - rewrite shp_MDiag in A. injection A as <-. apply shp_MDense_Some in B. destruct B as [_ ->].
    destruct (mul_diag_dense d m n v) eqn:Em; cbn [bind] in H; try discriminate. now apply mul_diag_dense_exn in Em.
  - apply shp_MDense_Some in A. destruct A as [_ ->]. rewrite shp_MDiag in B. injection B as <-.
    destruct (mul_dense_diag m n v d) eqn:Em; cbn [bind] in H; try discriminate.
    apply mul_dense_diag_exn in Em. cbn [fst snd]. intuition congruence.
  - apply shp_MDense_Some in A. destruct A as [_ ->]. apply shp_MDense_Some in B. destruct B as [_ ->].
    destruct (mul_dense_dense m n v m0 n0 v0) eqn:Em; cbn [bind] in H; try discriminate.
    now apply mul_dense_dense_exn in Em.
Qed.

(* when a step of the folding loop throws, the product of the factors processed so far with the next one
   is undefined *)
Lemma mul_step_exn_undefined rho p st x c :
  mul_inv rho p st -> mul_step st x = ErrExn c -> fst (chain rho (p ++ [x])) = None.
Proof.
  intros (Hone & HB & _) Hstep.
  destruct (fst (chain rho (p ++ [x]))) as [s|] eqn:Hs; [|reflexivity]. exfalso.
  destruct (mul_step_throws st x c Hone Hstep) as (keep & a & E & Ha & Hx & Em).
  assert (HL : flush st <> []) by (rewrite E; apply app_nonempty).
  destruct (HB HL) as [Hp Esv].
  pose proof (inv_defined rho p (flush st) x s Hp HL Esv Hs) as Hs'. rewrite E in Hs'.
  destruct (chain_defined_last rho _ _ _ _ Hs') as (sa & sb & A & B & C).
  exact (mul_concrete_exn rho a x c sa sb Ha Hx Em A B C).
Qed.

Lemma mul_loop_exn_undefined rho l c : forall p st,
  mul_inv rho p st -> foldM mul_step l st = ErrExn c -> fst (chain rho (p ++ l)) = None.
Proof.
  induction l as [|x l IH]; intros p st HI H; cbn [foldM] in H; [discriminate|].
  destruct (fst (chain rho (p ++ x :: l))) as [s|] eqn:Hs; [|reflexivity]. exfalso.
  replace (p ++ x :: l) with ((p ++ [x]) ++ l) in Hs by (rewrite <- app_assoc; reflexivity).
  destruct (chain_prefix_defined rho (p ++ [x]) l s (app_nonempty p x) Hs) as [s1 Hs1].
  destruct (mul_step st x) as [st1| | |] eqn:E; cbn [bind] in H; try discriminate.
  - pose proof (mul_step_inv rho p st x st1 s1 HI Hs1 E) as HI1.
    rewrite (IH _ _ HI1 H) in Hs. discriminate.
  - inversion H; subst. rewrite (mul_step_exn_undefined rho p st x c HI E) in Hs1. discriminate.
Qed.

Theorem matrix_mul_error_sound rho args :
  matrix_mul args = ErrExn EXN_DOMAIN -> shp rho (naive_mul args) = None.
Proof.
  rewrite matrix_mul_eq. intros H. destruct (shp rho (naive_mul args)) as [s|] eqn:Es; [|reflexivity]. exfalso.
  assert (Hm : mul_body args = ErrExn EXN_DOMAIN).
  { destruct args as [|[q0|e0'] [|a1 args'']]; try discriminate; exact H. }
  clear H. unfold mul_body in Hm.
  destruct (expand_mul args e1 []) as [scalar expanded] eqn:Ee.
  destruct (expand_value rho args s scalar expanded Ee Es) as [_ Hsh].
  destruct (check_matching_mul_sizes expanded) as [[]| | |] eqn:Ec; cbn [bind] in Hm; try discriminate.
  - destruct (first_zero_arg args); [discriminate|].
    pose proof (mul_loop_exn_undefined rho expanded EXN_DOMAIN [] _ (mul_inv_nil rho)) as Hf. cbn [app] in Hf.
    destruct (foldM mul_step expanded mul_init) as [st| | |]; cbn [bind] in Hm; try discriminate.
    injection Hm as ->. rewrite (Hf eq_refl) in Hsh. discriminate.
  - inversion Hm; subst. apply (check_mul_fail_sound rho) in Ec.
    unfold chain in Hsh. rewrite chain_sv_shape, map_map in Hsh.
    change (map (fun x => fst (sem rho x)) expanded) with (map (shp rho) expanded) in Hsh. congruence.
Qed.

(* the former finding C26/matrix_mul:unchecked-fold-after-identity (repaired by 3d415cb): the factors
   around a dropped identity matrix of symbolic size were folded although their sizes had never been
   compared ([1,2] * I_n * [1,2,3]^T gave [5]; longer chains read out of range).  The folding helpers
   now throw DomainError on the former witnesses, and by the theorem above that is not spurious. *)
Definition qz (z : Z) : ent := (Q2Qc (inject_Z z), qc0).

Example fold_after_identity_rejected :
  matrix_mul [AMat (MDense 1 2 [qz 1; qz 2]); AMat (MIdent (DSym 30)); AMat (MDense 3 1 [qz 1; qz 2; qz 3])]
    = ErrExn EXN_DOMAIN /\
  matrix_mul [AMat (MDiag [qz 1; qz 2]); AMat (MIdent (DSym 30)); AMat (MDiag [qz 1; qz 2; qz 3])]
    = ErrExn EXN_DOMAIN /\
  matrix_mul [AMat (MDense 1 2 [qz 2; qz 0]); AMat (MDense 2 4 [qz 0; qz 3; qz 3; qz 0; qz 0; qz 1; qz 0; qz 0]);
              AMat (MIdent (DSym 30)); AScal (qz 1); AMat (MDense 3 1 [qz 0; qz 2; qz (-1)])]
    = ErrExn EXN_DOMAIN /\
  matrix_mul [AMat (MDiag [qz 1; qz 2]); AMat (MIdent (DSym 30)); AMat (MDense 3 1 [qz 1; qz 2; qz 3])]
    = ErrExn EXN_DOMAIN /\
  matrix_mul [AMat (MDense 1 2 [qz 1; qz 2]); AMat (MIdent (DSym 30)); AMat (MDiag [qz 1; qz 2; qz 3])]
    = ErrExn EXN_DOMAIN.
Proof. repeat split; vm_compute; reflexivity. Qed.
