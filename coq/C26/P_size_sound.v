(* C26 obligation: a dimension reported by size() (an Integer or a dimension symbol) is the
   dimension of the dense value, for every environment in which the expression denotes a matrix. *)
From SE Require Import C26.MatSpec C26.MatUnaryProofs.
Theorem C26_size_sound :
  forall (rho : env) (e : mexpr) (V : mat),
    denote rho e = Some V ->
    (forall d, fst (size e) = Some d -> dval rho d = mr V) /\
    (forall d, snd (size e) = Some d -> dval rho d = mc V).
Proof. exact size_sound_final. Qed.
Print Assumptions C26_size_sound.
