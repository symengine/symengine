(* C26 -- is_diagonal / is_lower / is_upper / is_symmetric are one visitor over the expression
   (is_diagonal.cpp, is_lower.cpp, is_upper.cpp, is_symmetric.cpp): a dense checker on MDense leaves, the
   MatrixAdd rule, a HadamardProduct rule.  Here: the dense checkers for zero patterns, the two rules, the
   soundness scheme of the visitor for an arbitrary property, and its instances diagonal / lower / upper. *)
From SE Require Import C26.MatSpec C26.MatLemmas C26.MatPredBase.
From Coq Require Import Lia Ring.
Local Open Scope nat_scope.
Local Open Scope res_scope.

Lemma loop_tri_ext {A} (f g : A -> tri -> res tri) l c :
  (forall x cur, In x l -> f x cur = g x cur) -> loop_tri f l c = loop_tri g l c.
Proof.
  revert c. induction l as [|x l IH]; intros c H; cbn [loop_tri]; [reflexivity|].
  rewrite (H x c) by (now left). destruct (g x c) as [c'| | |]; cbn [bind]; try reflexivity.
  destruct (is_false c'); [reflexivity|]. apply IH. intros; apply H; now right.
Qed.

Lemma loop_and_spec {A} (chk : A -> res tri) l :
  (forall x, In x l -> chk x = Ok TT \/ chk x = Ok TF) ->
  (loop_tri (fun x cur => do b <- chk x; Ok (and_tri cur b)) l TT = Ok TT /\ forall x, In x l -> chk x = Ok TT) \/
  (loop_tri (fun x cur => do b <- chk x; Ok (and_tri cur b)) l TT = Ok TF /\ exists x, In x l /\ chk x = Ok TF).
Proof.
  induction l as [|x l IH]; intros H; cbn [loop_tri].
  - left. split; [reflexivity | intros x []].
  - destruct (H x (or_introl eq_refl)) as [E|E]; rewrite E; cbn [bind and_tri is_false].
    + destruct IH as [[HA HB]|[HA (y & Hy & Ey)]]; [intros; apply H; now right | |].
      * left. split; [assumption|]. intros z [<-|Hz]; auto.
      * right. split; [assumption|]. exists y. split; [now right | assumption].
    + right. split; [reflexivity|]. exists x. split; [now left | assumption].
Qed.

(* the entry check at a position, guarded by a condition *)
Definition chk_pos (n : nat) (v : list ent) (cond : nat * nat -> bool) (ij : nat * nat) : res tri :=
  if cond ij then do e <- rd v (fst ij * n + snd ij); Ok (tz e) else Ok TT.

Lemma chk_pos_step n v (cond : nat * nat -> bool) (ij : nat * nat) cur :
  (if cond ij then (do e <- rd v (fst ij * n + snd ij); Ok (and_tri cur (tz e))) else Ok cur)
  = (do b <- chk_pos n v cond ij; Ok (and_tri cur b)).
Proof.
  unfold chk_pos. destruct (cond ij).
  - destruct (rd v (fst ij * n + snd ij)); reflexivity.
  - cbn [bind]. now rewrite and_tri_TT_r.
Qed.

Lemma chk_pos_def n v cond ij :
  length v = n * n -> fst ij < n -> snd ij < n ->
  chk_pos n v cond ij = Ok TT \/ chk_pos n v cond ij = Ok TF.
Proof.
  intros L Hi Hj. unfold chk_pos. destruct (cond ij); [|now left].
  rewrite rd_lt by (rewrite L; apply idx_lt; lia). cbn [bind]. destruct (tz_cases (nth (fst ij * n + snd ij) v e0)) as [->| ->]; auto.
Qed.

Lemma chk_pos_TT n v cond ij :
  length v = n * n -> fst ij < n -> snd ij < n ->
  chk_pos n v cond ij = Ok TT -> cond ij = true -> nth (fst ij * n + snd ij) v e0 = e0.
Proof.
  intros L Hi Hj H Hc. unfold chk_pos in H. rewrite Hc in H.
  rewrite rd_lt in H by (rewrite L; apply idx_lt; lia). cbn [bind] in H. injection H as H. now apply tz_TT.
Qed.

Lemma chk_pos_TF n v cond ij :
  length v = n * n -> fst ij < n -> snd ij < n ->
  chk_pos n v cond ij = Ok TF -> cond ij = true /\ nth (fst ij * n + snd ij) v e0 <> e0.
Proof.
  intros L Hi Hj H. unfold chk_pos in H. destruct (cond ij); [|discriminate]. split; [reflexivity|].
  rewrite rd_lt in H by (rewrite L; apply idx_lt; lia). cbn [bind] in H. injection H as H. now apply tz_TF.
Qed.

Definition P_pat (Z : nat -> nat -> bool) (V : mat) : Prop :=
  mr V = mc V /\ forall i j, i < mr V -> j < mc V -> Z i j = true -> mf V i j = e0.

Definition Zdiag (i j : nat) : bool := negb (i =? j).
Definition Zlower (i j : nat) : bool := i <? j.
Definition Zupper (i j : nat) : bool := j <? i.

Lemma Zdiag_spec i j : Zdiag i j = true <-> i <> j.
Proof. unfold Zdiag. now rewrite negb_true_iff, Nat.eqb_neq. Qed.
Lemma Zlower_spec i j : Zlower i j = true <-> i < j.
Proof. apply Nat.ltb_lt. Qed.
Lemma Zupper_spec i j : Zupper i j = true <-> j < i.
Proof. apply Nat.ltb_lt. Qed.

(* a dense checker for the pattern Z: a loop over the positions ps guarded by cond *)
Definition dense_chk (ps : nat -> list (nat * nat)) (cond : nat * nat -> bool) (m n : nat) (v : list ent) : res tri :=
  if negb (m =? n) then Ok TF
  else loop_tri (fun ij cur => if cond ij then do e <- rd v (fst ij * n + snd ij); Ok (and_tri cur (tz e)) else Ok cur)
                (ps n) TT.

Section DensePattern.
  Variable Z : nat -> nat -> bool.
  Variable ps : nat -> list (nat * nat).
  Variable cond : nat * nat -> bool.
  Hypothesis ps_range : forall n i j, In (i, j) (ps n) -> i < n /\ j < n.
  Hypothesis ps_Z : forall n i j, i < n -> j < n -> (Z i j = true <-> In (i, j) (ps n) /\ cond (i, j) = true).

  Lemma dense_chk_sound rho m n v t :
    dense_chk ps cond m n v = Ok t -> sound_answer t (P_pat Z) rho (MDense m n v).
  Proof using ps_Z ps_range.
    intros H.
    apply sound_answer_intro. intros s Hs V. subst V.
    apply shp_MDense_Some in Hs. destruct Hs as [Lv ->]. unfold P_pat. cbn [fst snd mr mc mf].
    unfold dense_chk in H. destruct (Nat.eqb_spec m n) as [->|Hne]; cbn [negb] in H.
    2:{ inversion H; subst. split; [discriminate|]. intros _ [A _]. congruence. }
    rewrite (loop_tri_ext _ (fun ij cur => do b <- chk_pos n v cond ij; Ok (and_tri cur b))) in H
      by (intros; apply chk_pos_step).
    destruct (loop_and_spec (chk_pos n v cond) (ps n)) as [[E A]|[E (x & Hx & Ex)]].
    { intros [i j] Hin. destruct (ps_range n i j Hin). now apply chk_pos_def. }
    - rewrite E in H. inversion H; subst. split; [|discriminate]. intros _. split; [reflexivity|].
      intros i j Hi Hj Hz. rewrite val_MDense. apply (ps_Z n i j Hi Hj) in Hz.
      destruct Hz as [Hin Hc]. apply (chk_pos_TT n v cond (i, j)); auto.
    - rewrite E in H. inversion H; subst. split; [discriminate|]. intros _ [_ B].
      destruct x as [i j]. destruct (ps_range n i j Hx) as [Hi Hj].
      destruct (chk_pos_TF n v cond (i, j) Lv Hi Hj Ex) as [Hc Hnz]. apply Hnz.
      specialize (B i j Hi Hj). rewrite val_MDense in B. apply B. apply (ps_Z n i j Hi Hj); auto.
  Qed.

  Lemma dense_chk_total m n v :
    length v = m * n -> exists t, dense_chk ps cond m n v = Ok t.
  Proof using ps_range.
    intros Lv. unfold dense_chk. destruct (Nat.eqb_spec m n) as [->|]; cbn [negb]; [|eauto].
    rewrite (loop_tri_ext _ (fun ij cur => do b <- chk_pos n v cond ij; Ok (and_tri cur b)))
      by (intros; apply chk_pos_step).
    destruct (loop_and_spec (chk_pos n v cond) (ps n)) as [[E _]|[E _]]; [|eauto|eauto].
    intros [i j] Hin. destruct (ps_range n i j Hin). now apply chk_pos_def.
  Qed.
End DensePattern.

Lemma in_pairs m n i j : In (i, j) (pairs m n) <-> i < m /\ j < n.
Proof. unfold pairs. rewrite in_prod_iff, !in_seq. lia. Qed.

Lemma in_tri_pairs (lo cnt : nat -> nat) b n i j :
  In (i, j) (flat_map (fun i => map (fun j => (i, j)) (seq (lo i) (cnt i))) (seq b n))
  <-> (b <= i < b + n) /\ (lo i <= j < lo i + cnt i).
Proof.
  rewrite in_flat_map. split.
  - intros (a & Ha & Hin). apply in_map_iff in Hin. destruct Hin as (c & E & Hc).
    injection E as -> ->. now rewrite in_seq in Ha, Hc.
  - intros [A B]. exists i. split; [now apply in_seq|]. apply in_map_iff. exists j. split; [reflexivity | now apply in_seq].
Qed.

Lemma in_upper_strict n i j : In (i, j) (upper_strict_pairs n) <-> i < j /\ j < n.
Proof. unfold upper_strict_pairs. rewrite (in_tri_pairs S (fun i => n - S i)). lia. Qed.

Lemma in_lower_strict n i j : In (i, j) (lower_strict_pairs n) <-> j < i /\ i < n.
Proof. unfold lower_strict_pairs. rewrite (in_tri_pairs (fun _ => 0) (fun i => i)). lia. Qed.

Lemma in_lower_pairs n i j : In (i, j) (lower_pairs n) <-> j <= i /\ i < n.
Proof. unfold lower_pairs. rewrite (in_tri_pairs (fun _ => 0) S). lia. Qed.

Definition cond_offdiag (ij : nat * nat) : bool := negb (snd ij =? fst ij).
Definition cond_true (ij : nat * nat) : bool := true.

Lemma dense_is_diagonal_eq m n v :
  dense_is_diagonal m n v = dense_chk (fun n => pairs n n) cond_offdiag m n v.
Proof. reflexivity. Qed.

Lemma dense_tri_eq ps m n v :
  dense_tri_check (ps m) m n v = if negb (m =? n) then Ok TF else dense_chk ps cond_true n n v.
Proof.
  unfold dense_tri_check, dense_chk, dget, cond_true. destruct (Nat.eqb_spec m n) as [->|]; cbn [negb]; [|reflexivity].
  now rewrite Nat.eqb_refl.
Qed.

(* a dense checker: sound for P, and total on vectors of the right length *)
Definition dense_sound (P : mat -> Prop) (D : nat -> nat -> list ent -> res tri) : Prop :=
  (forall rho m n v t, D m n v = Ok t -> sound_answer t P rho (MDense m n v)) /\
  (forall m n v, length v = m * n -> exists t, D m n v = Ok t).

Lemma dense_sound_diag : dense_sound (P_pat Zdiag) dense_is_diagonal.
Proof.
  split.
  - intros rho m n v t H. rewrite dense_is_diagonal_eq in H.
    eapply (dense_chk_sound Zdiag (fun n => pairs n n) cond_offdiag); [| |exact H].
    + intros n0 i j Hin. now apply in_pairs in Hin.
    + intros n0 i j Hi Hj. unfold Zdiag, cond_offdiag. cbn [fst snd]. rewrite in_pairs, (Nat.eqb_sym j i). tauto.
  - intros m n v L. rewrite dense_is_diagonal_eq.
    eapply (dense_chk_total (fun n => pairs n n) cond_offdiag); [|exact L].
    intros n0 i j Hin. now apply in_pairs in Hin.
Qed.

Lemma nonsquare_TF rho Z m n v : m <> n -> sound_answer TF (P_pat Z) rho (MDense m n v).
Proof.
  intros Hne. apply sound_answer_intro. intros s Hs V.
  apply shp_MDense_Some in Hs. destruct Hs as [_ ->]. split; [discriminate|].
  intros _ [A _]. cbn in A. congruence.
Qed.

(* is_lower / is_upper: every position of the list is checked *)
Lemma dense_sound_tri Z ps :
  (forall n i j, In (i, j) (ps n) <-> Z i j = true /\ i < n /\ j < n) ->
  dense_sound (P_pat Z) (fun m n v => dense_tri_check (ps m) m n v).
Proof.
  intros Hps. split.
  - intros rho m n v t H. rewrite dense_tri_eq in H.
    destruct (Nat.eqb_spec m n) as [->|Hne]; cbn [negb] in H.
    + eapply (dense_chk_sound Z ps cond_true); [| |exact H].
      * intros n0 i j Hin. now apply Hps in Hin.
      * intros n0 i j Hi Hj. rewrite Hps. unfold cond_true. tauto.
    + inversion H; subst. now apply nonsquare_TF.
  - intros m n v L. rewrite dense_tri_eq. destruct (Nat.eqb_spec m n) as [->|Hne]; cbn [negb]; [|eauto].
    eapply (dense_chk_total ps cond_true); [|exact L]. intros n0 i j Hin. now apply Hps in Hin.
Qed.

Lemma dense_sound_lower : dense_sound (P_pat Zlower) (fun m n v => dense_tri_check (upper_strict_pairs m) m n v).
Proof. apply dense_sound_tri. intros n i j. unfold Zlower. rewrite in_upper_strict, Nat.ltb_lt. lia. Qed.

Lemma dense_sound_upper : dense_sound (P_pat Zupper) (fun m n v => dense_tri_check (lower_strict_pairs m) m n v).
Proof. apply dense_sound_tri. intros n i j. unfold Zupper. rewrite in_lower_strict, Nat.ltb_lt. lia. Qed.

Lemma count_concrete_cons x l :
  count_concrete (x :: l) = (if concrete x then 1 else 0) + count_concrete l.
Proof. unfold count_concrete. cbn [filter]. destruct (concrete x); cbn [length]; lia. Qed.

Lemma add_rule_sound (p : mexpr -> res tri) (Good : mexpr -> Prop) l : forall (found : bool) t,
  (forall x, In x l -> p x = Ok TT -> Good x) ->
  (forall x, In x l -> p x = Ok TF -> ~ Good x /\ concrete x = true) ->
  count_concrete l + (if found then 1 else 0) <= 1 ->
  add_rule p l found = Ok t ->
  (t = TT -> found = false /\ Forall Good l) /\
  (t = TF -> (found = true /\ Forall Good l) \/
             (found = false /\ exists l1 x l2, l = l1 ++ x :: l2 /\ ~ Good x /\ Forall Good l1 /\ Forall Good l2)).
Proof.
  induction l as [|x l IH]; intros found t HT HF Hc H; cbn [add_rule] in H.
  - inversion H; subst. destruct found; split; intros E; try discriminate; auto.
  - destruct (p x) as [tx| | |] eqn:Ex; cbn [bind] in H; try discriminate.
    rewrite count_concrete_cons in Hc.
    destruct tx.
    + (* TT *)
      assert (Gx : Good x) by (apply HT; [now left | assumption]).
      destruct (IH found t) as [A B]; try assumption.
      * intros; apply HT; [now right | assumption].
      * intros; apply HF; [now right | assumption].
      * destruct (concrete x); lia.
      * split.
        -- intros E. destruct (A E) as [A1 A2]. split; [assumption | constructor; assumption].
        -- intros E. destruct (B E) as [[B1 B2]|[B1 (l1 & y & l2 & E1 & Hy & H1 & H2)]].
           ++ left. split; [assumption | constructor; assumption].
           ++ right. split; [assumption|]. exists (x :: l1), y, l2. subst l. split; [reflexivity|].
              split; [assumption|]. split; [constructor; assumption | assumption].
    + (* TF *)
      destruct (HF x (or_introl eq_refl) Ex) as [Nx Cx]. rewrite Cx in Hc.
      destruct found; [lia|].
      destruct (IH true t) as [A B]; try assumption.
      * intros; apply HT; [now right | assumption].
      * intros; apply HF; [now right | assumption].
      * lia.
      * split.
        -- intros E. destruct (A E) as [A1 _]. discriminate.
        -- intros E. destruct (B E) as [[_ B2]|[B1 _]]; [|discriminate].
           right. split; [reflexivity|]. exists [], x, l. split; [reflexivity|].
           split; [assumption|]. split; [constructor | assumption].
    + (* TI *)
      inversion H; subst. split; discriminate.
Qed.

(* is_diagonal / is_lower / is_upper / is_symmetric are one visitor; they differ in the dense checker
   and in the HadamardProduct rule ([sym]: the rule of is_symmetric) *)
Definition hrule (sym : bool) (p : mexpr -> res tri) (fs : list mexpr) : res tri :=
  if sym then sym_had_rule p fs else had_rule p fs.

Definition gpred (D : nat -> nat -> list ent -> res tri) (sym : bool) : mexpr -> res tri :=
  fix g (e : mexpr) : res tri :=
    match e with
    | MIdent _ => Ok TT
    | MZero _ _ => Ok (is_square e)
    | MDiag _ => Ok TT
    | MDense m n v => D m n v
    | MAdd ts => add_rule g ts false
    | MHad fs => hrule sym g fs
    | _ => Ok TI
    end.

Lemma is_diagonal_gpred e : is_diagonal e = gpred dense_is_diagonal false e.
Proof. reflexivity. Qed.
Lemma is_lower_gpred e : is_lower e = gpred (fun m n v => dense_tri_check (upper_strict_pairs m) m n v) false e.
Proof. reflexivity. Qed.
Lemma is_upper_gpred e : is_upper e = gpred (fun m n v => dense_tri_check (lower_strict_pairs m) m n v) false e.
Proof. reflexivity. Qed.
Lemma is_symmetric_gpred e : is_symmetric e = gpred dense_is_symmetric true e.
Proof. reflexivity. Qed.

(* P holds of the entries of x, read in the shape s *)
Definition good_at rho (P : mat -> Prop) (s : shape) (x : mexpr) : Prop :=
  P (mkmat (fst s) (snd s) (val rho x)).

Lemma sound_answer_good rho P s x t :
  shp rho x = Some s -> sound_answer t P rho x ->
  (t = TT -> good_at rho P s x) /\ (t = TF -> ~ good_at rho P s x).
Proof.
  intros Hs H. apply H. apply denote_Some. exists s. auto.
Qed.

(* The visitor is sound for a property P that holds of identity and diagonal matrices, holds of a zero
   matrix exactly when it is square, is kept by sums and differences of matrices of one shape, for which
   the dense checker is sound, and which the HadamardProduct rule respects. *)
Section Scheme.
  Variable P : mat -> Prop.
  Variable D : nat -> nat -> list ent -> res tri.
  Variable sym : bool.
  Let H := hrule sym.
  Hypothesis P_ident : forall rho n, good_at rho P (dval rho n, dval rho n) (MIdent n).
  Hypothesis P_diag : forall rho d, good_at rho P (length d, length d) (MDiag d).
  Hypothesis P_zero : forall rho m n r c, good_at rho P (r, c) (MZero m n) <-> r = c.
  Hypothesis P_sum : forall rho s ts, ts <> [] -> Forall (good_at rho P s) ts -> good_at rho P s (MAdd ts).
  Hypothesis P_diff : forall rho s l1 x l2,
    Forall (good_at rho P s) l1 -> Forall (good_at rho P s) l2 ->
    good_at rho P s (MAdd (l1 ++ x :: l2)) -> good_at rho P s x.
  Hypothesis D_sound : forall rho m n v t, D m n v = Ok t -> sound_answer t P rho (MDense m n v).
  Hypothesis H_notTF : forall p fs, H p fs <> Ok TF.
  Hypothesis H_TT : forall rho s p fs,
    H p fs = Ok TT -> (forall x, In x fs -> p x = Ok TT -> good_at rho P s x) -> good_at rho P s (MHad fs).

  (* a "false" can only come from a dense leaf *)
  Lemma gpred_TF_concrete e :
    gpred D sym e = Ok TF -> is_MZero e = false -> is_MAdd e = false -> concrete e = true.
  Proof using H_notTF.
    destruct e; cbn [gpred is_MZero is_MAdd concrete is_MDiag is_MDense orb]; intros Ht Hz Ha;
      try discriminate; try reflexivity.
    now apply H_notTF in Ht.
  Qed.

  Theorem gpred_sound rho e :
    wf e = true -> forall t, gpred D sym e = Ok t -> sound_answer t P rho e.
  Proof using P_ident P_diag P_zero P_sum P_diff D_sound H_notTF H_TT.
    induction e as [n|m n|x|d|m n v|ts IH|k fs IH|fs IH|a IHa|a IHa] using mexpr_ind';
      intros Hwf t Ht; cbn [gpred] in Ht; try (injection Ht as <-; apply sound_answer_TI).
    - injection Ht as <-. apply sound_answer_intro. intros s Hs V. rewrite shp_MIdent in Hs. injection Hs as <-.
      split; [intros _; apply P_ident | discriminate].
    - injection Ht as <-. apply sound_answer_intro. intros s Hs V. rewrite shp_MZero in Hs. injection Hs as <-.
      cbn [is_square]. split; intros E.
      + apply (P_zero rho m n). now apply dim_diff_zero_TT.
      + intros HP. apply (P_zero rho m n) in HP. now apply (dim_diff_zero_TF rho m n).
    - injection Ht as <-. apply sound_answer_intro. intros s Hs V. rewrite shp_MDiag in Hs. injection Hs as <-.
      split; [intros _; apply P_diag | discriminate].
    - now apply D_sound.
    - (* MatrixAdd: all terms good, or exactly one (a dense one) not *)
      apply sound_answer_intro. intros s Hs V. rewrite shp_MAdd in Hs. apply shape_all_Forall in Hs.
      destruct Hs as [Hne Hall].
      cbn [wf] in Hwf. rewrite !andb_true_iff, !forallb_forall, !Nat.leb_le in Hwf.
      destruct Hwf as [[[_ Hkinds] Hcc] Hwfs]. rewrite Forall_forall in IH, Hall.
      destruct (add_rule_sound (gpred D sym) (good_at rho P s) ts false t) as [A B]; try assumption.
      + intros x Hin Ex. eapply sound_answer_good; eauto.
      + intros x Hin Ex. split.
        * eapply sound_answer_good; eauto.
        * specialize (Hkinds x Hin). apply negb_true_iff, orb_false_iff in Hkinds. destruct Hkinds.
          now apply gpred_TF_concrete.
      + lia.
      + split.
        * intros E. destruct (A E) as [_ G]. now apply P_sum.
        * intros E HP. destruct (B E) as [[C _]|[_ (l1 & x & l2 & -> & Nx & G1 & G2)]]; [discriminate|].
          apply Nx. now apply (P_diff rho s l1 x l2).
    - (* HadamardProduct *)
      apply sound_answer_intro. intros s Hs V. rewrite shp_MHad in Hs. apply shape_all_Forall in Hs.
      destruct Hs as [Hne Hall].
      cbn [wf] in Hwf. rewrite !andb_true_iff, !forallb_forall in Hwf. destruct Hwf as [_ Hwfs].
      rewrite Forall_forall in IH, Hall.
      destruct t; [|now apply H_notTF in Ht | split; discriminate]. split; [intros _|discriminate].
      apply (H_TT rho s _ _ Ht). intros x Hin Ex. eapply sound_answer_good; eauto.
  Qed.
End Scheme.

Lemma esum_all_zero {A} (f : A -> ent) l : (forall x, In x l -> f x = e0) -> esum (map f l) = e0.
Proof.
  intros H. rewrite (esum_map_ext f (fun _ => e0)) by assumption. apply esum_map_zero.
Qed.

Lemma had_rule_spec (p : mexpr -> res tri) l t :
  had_rule p l = Ok t -> t <> TF /\ (t = TT -> exists x, In x l /\ p x = Ok TT).
Proof.
  induction l as [|x l IH]; cbn [had_rule]; intros H.
  - inversion H; subst. split; discriminate.
  - destruct (p x) as [tx| | |] eqn:Ex; cbn [bind] in H; try discriminate.
    destruct (is_true tx) eqn:E.
    + inversion H; subst. split; [discriminate|]. intros _. exists x. split; [now left|].
      destruct tx; try discriminate. assumption.
    + destruct (IH H) as [A B]. split; [assumption|]. intros Et. destruct (B Et) as (y & Hy & Ey).
      exists y. split; [now right | assumption].
Qed.

Section Pattern.
  Variable Z : nat -> nat -> bool.
  Variable D : nat -> nat -> list ent -> res tri.
  Hypothesis Zoff : forall i j, Z i j = true -> i <> j.
  Hypothesis Dsound : dense_sound (P_pat Z) D.

  Theorem pattern_sound rho e :
    wf e = true -> forall t, gpred D false e = Ok t -> sound_answer t (P_pat Z) rho e.
  Proof using Zoff Dsound.
    apply (gpred_sound (P_pat Z) D false); clear rho e.
    - intros rho n. split; [reflexivity|]. cbn [mr mc mf fst snd]. intros i j _ _ Hz. rewrite val_MIdent.
      unfold delta. apply Zoff, Nat.eqb_neq in Hz. now rewrite Hz.
    - intros rho d. split; [reflexivity|]. cbn [mr mc mf fst snd]. intros i j _ _ Hz. rewrite val_MDiag.
      apply Zoff, Nat.eqb_neq in Hz. now rewrite Hz.
    - intros rho m n r c. split; [now intros [E _] | intros ->; split; [reflexivity | reflexivity]].
    - intros rho s ts Hne G. rewrite Forall_forall in G. split; cbn [mr mc mf].
      + destruct ts as [|x0 ?]; [congruence|]. now destruct (G x0 (or_introl eq_refl)).
      + intros i j Hi Hj Hz. rewrite val_MAdd. apply esum_all_zero. intros x Hin. now apply (G x Hin).
    - intros rho s l1 x l2 G1 G2 [Sq HP]. rewrite Forall_forall in G1, G2. split; [exact Sq|]. cbn [mr mc mf] in *.
      intros i j Hi Hj Hz. specialize (HP i j Hi Hj Hz). rewrite val_MAdd, map_app, esum_app in HP.
      cbn [map] in HP. rewrite esum_cons in HP.
      rewrite (esum_all_zero (fun e => val rho e i j) l1) in HP by (intros y Hy; now apply (G1 y Hy)).
      rewrite (esum_all_zero (fun e => val rho e i j) l2) in HP by (intros y Hy; now apply (G2 y Hy)).
      rewrite <- HP. ring.
    - apply Dsound.
    - intros p fs Ht. now apply had_rule_spec in Ht.
    - intros rho s p fs Ht G. apply had_rule_spec in Ht. destruct Ht as [_ Ht].
      destruct (Ht eq_refl) as (x & Hin & Ex). destruct (G x Hin Ex) as [Sq GP]. split; [exact Sq|].
      cbn [mr mc mf] in *. intros i j Hi Hj Hz. rewrite val_MHad. apply eprod_zero. apply in_map_iff.
      exists x. split; [now apply GP | assumption].
  Qed.
End Pattern.

Lemma sound_answer_iff t P Q rho e :
  (forall V, P V <-> Q V) -> sound_answer t P rho e -> sound_answer t Q rho e.
Proof.
  intros H S V HV. destruct (S V HV) as [A B]. split.
  - intros E. apply H. auto.
  - intros E HQ. apply (B E). now apply H.
Qed.

(* P_diagonal, P_lower and P_upper are the zero patterns of a relation R between row and column index *)
Lemma zero_pattern_sound Z (R : nat -> nat -> Prop) D rho e t :
  (forall i j, Z i j = true <-> R i j) -> (forall i j, R i j -> i <> j) -> dense_sound (P_pat Z) D ->
  wf e = true -> gpred D false e = Ok t ->
  sound_answer t (fun V => mr V = mc V /\ forall i j, i < mr V -> j < mc V -> R i j -> mf V i j = e0) rho e.
Proof.
  intros HZ Hoff HD Hwf H. apply (sound_answer_iff t (P_pat Z)).
  - intros V. unfold P_pat. split; intros [A B]; (split; [exact A|]); intros i j Hi Hj Hr; apply B; auto; now apply HZ.
  - apply (pattern_sound Z D); auto. intros i j Hz. now apply Hoff, HZ.
Qed.

Theorem is_diagonal_sound rho e t :
  wf e = true -> is_diagonal e = Ok t -> sound_answer t P_diagonal rho e.
Proof. exact (zero_pattern_sound Zdiag _ _ rho e t Zdiag_spec (fun i j H => H) dense_sound_diag). Qed.

Theorem is_lower_sound rho e t :
  wf e = true -> is_lower e = Ok t -> sound_answer t P_lower rho e.
Proof. apply (zero_pattern_sound Zlower _ _ rho e t Zlower_spec); [intros i j; lia | exact dense_sound_lower]. Qed.

Theorem is_upper_sound rho e t :
  wf e = true -> is_upper e = Ok t -> sound_answer t P_upper rho e.
Proof. apply (zero_pattern_sound Zupper _ _ rho e t Zupper_spec); [intros i j; lia | exact dense_sound_upper]. Qed.
