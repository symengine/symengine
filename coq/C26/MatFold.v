(* C26 -- what matrix_add and hadamard_product share (matrix_add.cpp, hadamard_product.cpp): both flatten
   nested nodes of their own kind, compare the sizes, fold the concrete operands -- one accumulated
   DiagonalMatrix, one accumulated dense matrix -- with their entrywise operation, merge the two when
   both are present, and rebuild a node unless a single operand is left.  Here: that loop over a
   variable operation [op] with unit [u], and what it preserves (value, well-formedness, no exception). *)
From SE Require Import C26.MatSpec C26.MatLemmas.
From Coq Require Import Lia.
Local Open Scope nat_scope.
Local Open Scope res_scope.

Lemma forM_Ok {A} (f : A -> res unit) l : forM_ f l = Ok tt <-> Forall (fun x => f x = Ok tt) l.
Proof.
  induction l as [|x l IH]; cbn [forM_].
  - split; [constructor | reflexivity].
  - destruct (f x) as [[]| | |] eqn:E; cbn [bind];
      [rewrite IH; split; [intros; constructor; assumption | intros H; now inversion H] | ..];
      (split; [discriminate | intros H; inversion H; congruence]).
Qed.

(* an operand before another one in the vector has been compared with it *)
Lemma check_pairs vec :
  check_matching_sizes vec = Ok tt ->
  forall l1 x l2 y l3, vec = l1 ++ x :: l2 ++ y :: l3 -> size_pair_check (size x) (size y) = Ok tt.
Proof.
  unfold check_matching_sizes. intros H l1 x l2 y l3 ->.
  rewrite map_app in H. cbn [map] in H. rewrite map_app in H. cbn [map] in H.
  apply forM_Ok in H. rewrite Forall_forall in H.
  specialize (H (size x)). rewrite forM_Ok, Forall_forall in H. apply H.
  - rewrite removelast_app by discriminate. apply in_or_app. right.
    rewrite app_comm_cons, removelast_app by discriminate. now left.
  - destruct (map size l1); cbn [app tl]; [|apply in_or_app; right; right]; apply in_or_app; right; now left.
Qed.

Lemma dense_pair_check m0 n0 v0 m n v :
  size_pair_check (size (MDense m0 n0 v0)) (size (MDense m n v)) = Ok tt -> m0 = m /\ n0 = n.
Proof.
  unfold size_pair_check, dim_pair_check, tri_of_bool. cbn [size fst snd dim_diff_zero].
  destruct (Nat.eqb_spec m0 m), (Nat.eqb_spec n0 n); cbn; intros H; try discriminate; auto.
Qed.

(* operands kept as they are, the folded DiagonalMatrix operands, the folded dense operands *)
Record acc := { c_keep : list mexpr; c_diag : option (list ent); c_dense : option (nat * nat * list ent) }.

(* a step of the loop, on an operand that is neither dropped nor ends it *)
Definition gstep (op : ent -> ent -> ent) (a : acc) (t : mexpr) : res acc :=
  match t with
  | MDiag d =>
      match c_diag a with
      | None => Ok {| c_keep := c_keep a; c_diag := Some d; c_dense := c_dense a |}
      | Some d0 => do s <- zipc op d0 d 0; Ok {| c_keep := c_keep a; c_diag := Some s; c_dense := c_dense a |}
      end
  | MDense m n v =>
      match c_dense a with
      | None => Ok {| c_keep := c_keep a; c_diag := c_diag a; c_dense := Some (m, n, v) |}
      | Some (m0, n0, v0) =>
          do s <- zipc op v v0 0; Ok {| c_keep := c_keep a; c_diag := c_diag a; c_dense := Some (m0, n0, s) |}
      end
  | _ => Ok {| c_keep := c_keep a ++ [t]; c_diag := c_diag a; c_dense := c_dense a |}
  end.

Definition odiag (o : option (list ent)) : list mexpr :=
  match o with Some d => [MDiag d] | None => [] end.
Definition odense (o : option (nat * nat * list ent)) : list mexpr :=
  match o with Some (m, n, v) => [MDense m n v] | None => [] end.
(* the operands an accumulator stands for *)
Definition acc_list (a : acc) : list mexpr := c_keep a ++ odiag (c_diag a) ++ odense (c_dense a).

(* after the loop: the two concrete operands are merged into one, which goes last *)
Definition gfinish (merge : list ent -> nat -> nat -> list ent -> res mexpr) (a : acc) : res (list mexpr) :=
  match c_diag a, c_dense a with
  | Some d, Some (m, n, v) => do c <- merge d m n v; Ok (c_keep a ++ [c])
  | Some d, None => Ok (c_keep a ++ [MDiag d])
  | None, Some (m, n, v) => Ok (c_keep a ++ [MDense m n v])
  | None, None => Ok (c_keep a)
  end.

Definition collapse (N : list mexpr -> mexpr) (l : list mexpr) : mexpr :=
  match l with [x] => x | _ => N l end.

Lemma gstep_noexn op a t c : gstep op a t <> ErrExn c.
Proof.
  unfold gstep. destruct t; try discriminate.
  - destruct (c_diag a); [|discriminate]. apply bind_noexn; [apply zipc_noexn | discriminate].
  - destruct (c_dense a) as [[[? ?] ?]|]; [|discriminate]. apply bind_noexn; [apply zipc_noexn | discriminate].
Qed.

Lemma gfinish_noexn merge a c :
  (forall d m n v, merge d m n v <> ErrExn c) -> gfinish merge a <> ErrExn c.
Proof.
  intros H. unfold gfinish. destruct (c_diag a), (c_dense a) as [[[? ?] ?]|]; try discriminate.
  apply bind_noexn; [apply H | discriminate].
Qed.

Lemma gstep_nonempty op a t a' : gstep op a t = Ok a' -> acc_list a' <> [].
Proof.
  unfold gstep, acc_list. intros H.
  destruct t; try (injection H as <-; cbn [c_keep]; destruct (c_keep a); discriminate).
  - destruct (c_diag a); [destruct (zipc _ _ _ _); cbn [bind] in H; try discriminate|];
      injection H as <-; cbn [c_keep c_diag odiag]; destruct (c_keep a); discriminate.
  - destruct (c_dense a) as [[[? ?] ?]|]; [destruct (zipc _ _ _ _); cbn [bind] in H; try discriminate|];
      injection H as <-; cbn [c_keep c_diag c_dense odense]; destruct (c_keep a), (odiag (c_diag a)); discriminate.
Qed.

(* only operands that are not concrete are kept as they are *)
Lemma gstep_keep op a t a' :
  gstep op a t = Ok a' -> c_keep a' = if concrete t then c_keep a else c_keep a ++ [t].
Proof.
  unfold gstep. destruct t; cbn [concrete is_MDiag is_MDense orb]; intros H; try (now injection H as <-).
  - destruct (c_diag a); [destruct (zipc _ _ _ _); cbn [bind] in H; try discriminate|]; now injection H as <-.
  - destruct (c_dense a) as [[[? ?] ?]|]; [destruct (zipc _ _ _ _); cbn [bind] in H; try discriminate|];
      now injection H as <-.
Qed.

Lemma gfinish_nonempty merge a l : gfinish merge a = Ok l -> acc_list a <> [] -> l <> [].
Proof.
  unfold gfinish, acc_list. destruct (c_diag a), (c_dense a) as [[[? ?] ?]|]; cbn [odiag odense]; intros H Hne;
    [destruct (merge _ _ _ _); cbn [bind] in H; try discriminate|..]; injection H as <-;
    [destruct (c_keep a); discriminate .. |]. now rewrite !app_nil_r in Hne.
Qed.

Section Fold.
  Variables (op : ent -> ent -> ent) (u : ent).
  Hypothesis op_assoc : forall a b c, op a (op b c) = op (op a b) c.
  Hypothesis op_comm : forall a b, op a b = op b a.
  Hypothesis op_u : forall a, op u a = a.
  Hypothesis op_00 : op e0 e0 = e0.
  (* the node, its recogniser, and one level of flattening *)
  Variables (N : list mexpr -> mexpr) (is_N : mexpr -> bool) (flat : mexpr -> list mexpr).
  Hypothesis flat_spec : forall t, (is_N t = false /\ flat t = [t]) \/ (exists ts, t = N ts /\ flat t = ts).
  Hypothesis is_N_concrete : forall c, concrete c = true -> is_N c = false.
  Hypothesis wf_N_kids : forall ts, wf (N ts) = true ->
    2 <= length ts /\ Forall (fun x => wf x = true /\ is_N x = false) ts.

  Lemma op_u_r a : op a u = a.
  Proof using op_comm op_u. now rewrite op_comm. Qed.

  Lemma big_cons x l : big op u (x :: l) = op x (big op u l).
  Proof. reflexivity. Qed.
  Lemma big_app l1 l2 : big op u (l1 ++ l2) = op (big op u l1) (big op u l2).
  Proof using op_assoc op_u.
    induction l1 as [|x l1 IH]; cbn [app]; [symmetry; apply op_u|].
    now rewrite !big_cons, IH, op_assoc.
  Qed.

  Lemma flatten_wf terms :
    Forall (fun e => wf e = true) terms ->
    Forall (fun e => wf e = true /\ is_N e = false) (flat_map flat terms).
  Proof using flat_spec wf_N_kids.
    induction 1 as [|t r Ht _ IH]; [constructor|]. cbn [flat_map]. apply Forall_app. split; [|exact IH].
    destruct (flat_spec t) as [[Hn ->]|(ts & -> & ->)]; [now repeat constructor | now apply wf_N_kids].
  Qed.

  Lemma flatten_wf_nonempty terms :
    terms <> [] -> Forall (fun e => wf e = true) terms -> flat_map flat terms <> [].
  Proof using flat_spec wf_N_kids.
    destruct terms as [|t r]; [congruence|]. intros _ H. inversion H as [|? ? Ht _]; subst. cbn [flat_map].
    destruct (flat_spec t) as [[_ ->]|(ts & -> & ->)]; [discriminate|].
    apply wf_N_kids in Ht. destruct ts; [cbn in Ht; lia | discriminate].
  Qed.

  Definition kept (e : mexpr) : Prop :=
    wf e = true /\ is_MZero e = false /\ is_N e = false /\ concrete e = false.

  (* [p]: the operands processed so far; the accumulated dense matrix has the dimensions of one of them *)
  Definition acc_wf (p : list mexpr) (a : acc) : Prop :=
    Forall kept (c_keep a) /\
    (forall d, c_diag a = Some d -> d <> []) /\
    (forall m n v, c_dense a = Some (m, n, v) ->
       1 <= m /\ 1 <= n /\ length v = m * n /\ exists v', In (MDense m n v') p).

  Lemma acc_wf_nil : acc_wf [] {| c_keep := []; c_diag := None; c_dense := None |}.
  Proof. split; [constructor|]. split; discriminate. Qed.

  Lemma acc_wf_mono p q a : acc_wf p a -> acc_wf (p ++ q) a.
  Proof.
    intros (Hk & Hd & Hn). split; [exact Hk|]. split; [exact Hd|]. intros m n v E.
    destruct (Hn m n v E) as (A & B & C & v' & D). repeat split; try assumption.
    exists v'. apply in_or_app. now left.
  Qed.

  Lemma gstep_wf vec p t rest a a' :
    check_matching_sizes vec = Ok tt -> vec = p ++ t :: rest ->
    acc_wf p a -> wf t = true -> is_MZero t = false -> is_N t = false ->
    gstep op a t = Ok a' -> acc_wf (p ++ [t]) a'.
  Proof using Type.
    intros Hchk Hvec HI Hwt Hzt Hnt H.
    pose proof (acc_wf_mono p [t] a HI) as (Hk & Hd & Hn). destruct HI as (_ & _ & Hn0).
    unfold gstep in H.
    destruct t; try discriminate;
      try (injection H as <-; split; [|split; assumption]; cbn [c_keep]; apply Forall_app; split; [assumption|];
           repeat constructor; assumption).
    - (* a DiagonalMatrix *)
      apply wf_MDiag in Hwt.
      destruct (c_diag a) as [d0|] eqn:Ed.
      + destruct (zipc op d0 d 0) as [s| | |] eqn:Ez; cbn [bind] in H; try discriminate. injection H as <-.
        apply zipc_spec in Ez. destruct Ez as (Ls & _ & _).
        split; [assumption|]. split; [|assumption]. cbn [c_diag]. intros d' E Hd'. injection E as <-. subst s.
        apply (Hd d0 eq_refl). now destruct d0.
      + injection H as <-. split; [assumption|]. split; [|assumption]. cbn [c_diag].
        intros d' E. now injection E as <-.
    - (* a dense matrix *)
      apply wf_MDense in Hwt. destruct Hwt as (Hm1 & Hn1 & Lv).
      assert (Hin : In (MDense m n v) (p ++ [MDense m n v])) by (apply in_or_app; right; now left).
      destruct (c_dense a) as [[[m0 n0] v0]|] eqn:Ede.
      + destruct (zipc op v v0 0) as [s| | |] eqn:Ez; cbn [bind] in H; try discriminate. injection H as <-.
        apply zipc_spec in Ez. destruct Ez as (Ls & _ & _).
        destruct (Hn0 m0 n0 v0 eq_refl) as (_ & _ & _ & v' & D).
        apply in_split in D. destruct D as (l1 & l2 & ->).
        destruct (dense_pair_check m0 n0 v' m n v) as [-> ->].
        { apply (check_pairs _ Hchk l1 _ l2 _ rest). rewrite Hvec, <- app_assoc. reflexivity. }
        split; [assumption|]. split; [assumption|]. cbn [c_dense]. intros m1 n1 v1 E. injection E as <- <- <-.
        repeat split; try assumption; [lia | eauto].
      + injection H as <-. split; [assumption|]. split; [assumption|]. cbn [c_dense].
        intros m1 n1 v1 E. injection E as <- <- <-. repeat split; try assumption. eauto.
  Qed.

  Variable merge : list ent -> nat -> nat -> list ent -> res mexpr.
  Hypothesis merge_wf : forall d m n v c, merge d m n v = Ok c ->
    d <> [] -> 1 <= m -> 1 <= n -> length v = m * n -> wf c = true /\ concrete c = true.

  (* at most one concrete operand, and it is the last one *)
  Definition tail_ok (tail : list mexpr) : Prop :=
    tail = [] \/ exists c, tail = [c] /\ wf c = true /\ concrete c = true.

  Lemma gfinish_wf p a l :
    acc_wf p a -> gfinish merge a = Ok l -> exists tail, l = c_keep a ++ tail /\ tail_ok tail.
  Proof using merge_wf.
    intros (_ & Hd & Hn) H. unfold gfinish in H.
    destruct (c_diag a) as [d|], (c_dense a) as [[[m n] v]|].
    - destruct (Hn m n v eq_refl) as (A & B & C & _).
      destruct (merge d m n v) as [c| | |] eqn:Em; cbn [bind] in H; try discriminate. injection H as <-.
      exists [c]. split; [reflexivity|]. right. exists c. split; [reflexivity|].
      apply (merge_wf d m n v); auto.
    - injection H as <-. exists [MDiag d]. split; [reflexivity|]. right. eexists. split; [reflexivity|].
      split; [|reflexivity]. apply wf_MDiag. now apply Hd.
    - injection H as <-. destruct (Hn m n v eq_refl) as (A & B & C & _).
      exists [MDense m n v]. split; [reflexivity|]. right. eexists. split; [reflexivity|].
      split; [|reflexivity]. apply wf_MDense. auto.
    - injection H as <-. exists []. split; [now rewrite app_nil_r | now left].
  Qed.

  (* the conditions on the operand list that wf asks of a MatrixAdd and of a HadamardProduct alike *)
  Lemma node_flags keep tail :
    Forall kept keep -> tail_ok tail -> 2 <= length (keep ++ tail) ->
    (2 <=? length (keep ++ tail)) && forallb (fun t => negb (is_MZero t || is_N t)) (keep ++ tail)
      && (count_concrete (keep ++ tail) <=? 1) = true /\
    forallb wf (keep ++ tail) = true.
  Proof using is_N_concrete.
    intros Hk Ht Hl.
    assert (Hc : forall c, concrete c = true -> negb (is_MZero c || is_N c) = true).
    { intros c Hc. rewrite (is_N_concrete c Hc). now destruct c. }
    assert (F3 : count_concrete keep = 0).
    { clear Hl. unfold count_concrete. induction Hk as [|x l (_ & _ & _ & Hx) _ IH]; [reflexivity|].
      cbn [filter]. now rewrite Hx. }
    rewrite !andb_true_iff, !forallb_app, !andb_true_iff, !forallb_forall, Nat.leb_le, Nat.leb_le.
    rewrite Forall_forall in Hk. unfold count_concrete in *. rewrite filter_app, (app_length (filter concrete keep)), F3.
    repeat split; try assumption.
    - intros x Hx. destruct (Hk x Hx) as (_ & -> & -> & _). reflexivity.
    - destruct Ht as [->|(c & -> & _ & Hcc)]; intros x Hx; [destruct Hx|]. destruct Hx as [<-|[]]. now apply Hc.
    - destruct Ht as [->|(c & -> & _ & Hcc)]; cbn [filter]; [|rewrite Hcc]; cbn; lia.
    - intros x Hx. now apply Hk.
    - destruct Ht as [->|(c & -> & Hwc & _)]; intros x Hx; [destruct Hx|]. now destruct Hx as [<-|[]].
  Qed.

  Lemma collapse_wf keep tail :
    Forall kept keep -> tail_ok tail -> keep ++ tail <> [] ->
    (2 <= length (keep ++ tail) -> wf (N (keep ++ tail)) = true) ->
    wf (collapse N (keep ++ tail)) = true.
  Proof using Type.
    intros Hk Ht Hne HN. destruct (keep ++ tail) as [|x [|y l]] eqn:E; [congruence | | apply HN; cbn; lia].
    assert (H : In x (keep ++ tail)) by (rewrite E; now left). apply in_app_or in H. destruct H as [H|H].
    - rewrite Forall_forall in Hk. now apply Hk.
    - destruct Ht as [->|(c & -> & Hc & _)]; [destruct H|]. now destruct H as [<-|[]].
  Qed.

  Variable rho : env.
  Hypothesis shp_N : forall l, shp rho (N l) = shape_all (map (shp rho) l).
  Hypothesis val_N : forall l i j, val rho (N l) i j = big op u (map (fun e => val rho e i j) l).

  Local Notation bigv l i j := (big op u (map (fun e => val rho e i j) l)).
  Local Notation has s := (fun e => shp rho e = Some s).

  Lemma bigv1 e i j : bigv [e] i j = val rho e i j.
  Proof using op_comm op_u. cbn [map]. rewrite big_cons. apply op_u_r. Qed.

  Lemma bigv_snoc l t i j : bigv (l ++ [t]) i j = op (bigv l i j) (val rho t i j).
  Proof using op_assoc op_comm op_u. now rewrite map_app, big_app, bigv1. Qed.

  (* one more operand somewhere in the list; an operand replaced by its combination with another *)
  Lemma bigv_insert l1 l2 t i j : bigv (l1 ++ t :: l2) i j = op (bigv (l1 ++ l2) i j) (val rho t i j).
  Proof using op_assoc op_comm op_u. rewrite !map_app. cbn [map]. rewrite !big_app, big_cons. now rewrite (op_comm (val rho t i j)), op_assoc. Qed.

  Lemma bigv_replace l1 l2 c r t i j :
    val rho r i j = op (val rho c i j) (val rho t i j) ->
    bigv (l1 ++ r :: l2) i j = op (bigv (l1 ++ c :: l2) i j) (val rho t i j).
  Proof using op_assoc op_comm op_u. intros E. now rewrite !bigv_insert, E, op_assoc. Qed.

  Lemma Forall_insert {A} (P : A -> Prop) l1 l2 x : Forall P (l1 ++ l2) -> P x -> Forall P (l1 ++ x :: l2).
  Proof. rewrite !Forall_app. intros [H1 H2] Hx. split; [exact H1 | now constructor]. Qed.

  Lemma Forall_replace {A} (P : A -> Prop) l1 l2 y x :
    Forall P (l1 ++ y :: l2) -> P x -> Forall P (l1 ++ x :: l2).
  Proof. rewrite !Forall_app. intros [H1 H2] Hx. split; [exact H1|]. inversion H2; subst. now constructor. Qed.

  Lemma flatten_val terms i j : bigv (flat_map flat terms) i j = bigv terms i j.
  Proof using flat_spec op_assoc op_comm op_u val_N.
    induction terms as [|t r IH]; [reflexivity|]. cbn [flat_map map]. rewrite map_app, big_app, IH, big_cons. f_equal.
    destruct (flat_spec t) as [[_ ->]|(ts & -> & ->)]; [apply bigv1 | symmetry; apply val_N].
  Qed.

  Lemma flatten_shape terms s :
    shape_all (map (shp rho) terms) = Some s -> shape_all (map (shp rho) (flat_map flat terms)) = Some s.
  Proof using flat_spec shp_N.
    rewrite !shape_all_Forall. intros [Hne H]. split.
    - destruct terms as [|t r]; [congruence|]. inversion H as [|? ? Ht _]; subst. cbn [flat_map].
      destruct (flat_spec t) as [[_ ->]|(ts & -> & ->)]; [discriminate|].
      rewrite shp_N in Ht. apply shape_all_Forall in Ht. destruct ts; [now destruct Ht | discriminate].
    - clear Hne. induction H as [|t r Ht _ IH]; [constructor|]. cbn [flat_map]. apply Forall_app. split; [|exact IH].
      destruct (flat_spec t) as [[_ ->]|(ts & -> & ->)]; [now constructor|].
      rewrite shp_N in Ht. now apply shape_all_Forall in Ht.
  Qed.

  (* entrywise combination of two concrete operands of the same kind *)
  Lemma diag_merge_val d0 d r i j :
    zipc op d0 d 0 = Ok r -> length d0 = length d ->
    length r = length d0 /\ val rho (MDiag r) i j = op (val rho (MDiag d0) i j) (val rho (MDiag d) i j).
  Proof using op_00.
    intros Hz L. apply zipc0_spec in Hz; [|assumption]. destruct Hz as [Lr Hn]. split; [assumption|].
    rewrite !val_MDiag. destruct (i =? j); [|now rewrite op_00].
    rewrite Hn. destruct (Nat.ltb_spec i (length d0)); [reflexivity|].
    rewrite !nth_overflow by lia. now rewrite op_00.
  Qed.

  Lemma dense_merge_val v v0 m n r i j :
    zipc op v v0 0 = Ok r -> length v = length v0 ->
    length r = length v /\ val rho (MDense m n r) i j = op (val rho (MDense m n v) i j) (val rho (MDense m n v0) i j).
  Proof using op_00.
    intros Hz L. apply zipc0_spec in Hz; [|assumption]. destruct Hz as [Lr Hn]. split; [assumption|].
    rewrite !val_MDense, Hn. destruct (Nat.ltb_spec (i * n + j) (length v)); [reflexivity|].
    rewrite !nth_overflow by lia. now rewrite op_00.
  Qed.

  (* every operand the accumulator stands for has shape [s], and together they have the value of
     the operands processed so far *)
  Definition acc_inv (s : shape) (p : list mexpr) (a : acc) : Prop :=
    Forall (has s) (acc_list a) /\ forall i j, bigv (acc_list a) i j = bigv p i j.

  Lemma acc_inv_nil s : acc_inv s [] {| c_keep := []; c_diag := None; c_dense := None |}.
  Proof. split; [constructor | reflexivity]. Qed.

  (* an operand that changes nothing: the unit, or one already accounted for *)
  Lemma acc_inv_absorb s p a t :
    acc_inv s p a ->
    (forall i j, op (bigv (acc_list a) i j) (val rho t i j) = bigv (acc_list a) i j) ->
    acc_inv s (p ++ [t]) a.
  Proof using op_assoc op_comm op_u. intros [Hs Hv] H. split; [exact Hs|]. intros i j. now rewrite bigv_snoc, <- Hv, H. Qed.

  Lemma gstep_inv s p a t a' :
    acc_inv s p a -> shp rho t = Some s -> gstep op a t = Ok a' -> acc_inv s (p ++ [t]) a'.
  Proof using op_00 op_assoc op_comm op_u.
    intros [Hs Hv] Ht H.
    enough (G : Forall (has s) (acc_list a') /\
                forall i j, bigv (acc_list a') i j = op (bigv (acc_list a) i j) (val rho t i j)).
    { destruct G as [G1 G2]. split; [exact G1|]. intros i j. now rewrite G2, Hv, bigv_snoc. }
    unfold acc_list in *. unfold gstep in H.
    destruct t; try discriminate;
      try (injection H as <-; cbn [c_keep c_diag c_dense]; rewrite <- app_assoc; cbn [app];
           split; [now apply Forall_insert | intros; apply bigv_insert]).
    - (* a DiagonalMatrix: alone in its place, or combined with the one there *)
      destruct (c_diag a) as [d0|] eqn:Ed; cbn [odiag app] in *.
      + destruct (zipc op d0 d 0) as [r| | |] eqn:Ez; cbn [bind] in H; try discriminate. injection H as <-.
        cbn [c_keep c_diag c_dense odiag app].
        assert (Hd0 : shp rho (MDiag d0) = Some s) by (apply Forall_app in Hs; destruct Hs as [_ Hs]; now inversion Hs).
        rewrite shp_MDiag in Hd0, Ht. assert (L : length d0 = length d) by congruence.
        split; [|intros i j; apply bigv_replace; now apply diag_merge_val].
        apply (Forall_replace _ _ _ (MDiag d0)); [exact Hs|].
        rewrite shp_MDiag. destruct (diag_merge_val d0 d r 0 0 Ez L) as [-> _]. exact Hd0.
      + injection H as <-. cbn [c_keep c_diag c_dense odiag app].
        split; [now apply Forall_insert | intros; apply bigv_insert].
    - (* a dense matrix: likewise *)
      rewrite app_assoc in Hs |- *.
      destruct (c_dense a) as [[[m0 n0] v0]|] eqn:Ede; cbn [odense] in *.
      + destruct (zipc op v v0 0) as [r| | |] eqn:Ez; cbn [bind] in H; try discriminate. injection H as <-.
        cbn [c_keep c_diag c_dense odense]. rewrite !app_assoc.
        assert (Hd0 : shp rho (MDense m0 n0 v0) = Some s) by (apply Forall_app in Hs; destruct Hs as [_ Hs]; now inversion Hs).
        apply shp_MDense_Some in Hd0. destruct Hd0 as [L0 S0].
        apply shp_MDense_Some in Ht. destruct Ht as [L1 S1].
        assert (E : (m, n) = (m0, n0)) by congruence. injection E as <- <-.
        assert (L : length v = length v0) by congruence.
        split.
        * apply (Forall_replace _ _ _ (MDense m n v0)); [exact Hs|]. rewrite shp_MDense.
          destruct (dense_merge_val v v0 m n r 0 0 Ez L) as [-> _]. rewrite L1, Nat.eqb_refl. now rewrite S1.
        * intros i j. apply bigv_replace. destruct (dense_merge_val v v0 m n r i j Ez L) as [_ ->]. apply op_comm.
      + injection H as <-. cbn [c_keep c_diag c_dense odense]. rewrite !app_assoc.
        split; [now apply Forall_insert | intros; apply bigv_insert].
  Qed.

  Hypothesis merge_val : forall d n v c, merge d n n v = Ok c -> length d = n -> length v = n * n ->
    shp rho c = Some (n, n) /\
    forall i j, i < n -> j < n -> val rho c i j = op (val rho (MDiag d) i j) (val rho (MDense n n v) i j).

  Lemma gfinish_value s p a l :
    acc_inv s p a -> gfinish merge a = Ok l ->
    Forall (has s) l /\ forall i j, i < fst s -> j < snd s -> bigv l i j = bigv p i j.
  Proof using merge_val op_assoc op_comm op_u.
    intros [Hs Hv] H. unfold gfinish in H.
    assert (Hsame : l = acc_list a -> Forall (has s) l /\
                    forall i j, i < fst s -> j < snd s -> bigv l i j = bigv p i j).
    { intros ->. split; [exact Hs|]. intros i j _ _. apply Hv. }
    unfold acc_list in *.
    destruct (c_diag a) as [d|], (c_dense a) as [[[m n] v]|]; cbn [odiag odense] in *;
      try (injection H as <-; apply Hsame; now rewrite ?app_nil_r).
    destruct (merge d m n v) as [c| | |] eqn:Em; cbn [bind] in H; try discriminate. injection H as <-.
    rewrite !Forall_app in Hs. destruct Hs as (Hk & Hd & Hn).
    inversion Hd as [|? ? Sd _]; subst. inversion Hn as [|? ? Sn _]; subst.
    rewrite shp_MDiag in Sd. apply shp_MDense_Some in Sn. destruct Sn as [Lv Sn].
    assert (E : (m, n) = (length d, length d)) by congruence. injection E as -> ->.
    destruct (merge_val d (length d) v c Em eq_refl Lv) as [Sc Vc].
    split; [apply Forall_app; split; [exact Hk | constructor; [congruence | constructor]]|].
    intros i j Hi Hj. rewrite <- Hv, bigv_snoc, map_app, big_app. f_equal.
    rewrite Sn in Hi, Hj. rewrite Vc by assumption. cbn [map app]. now rewrite !big_cons, op_u_r.
  Qed.

  Lemma collapse_value s l :
    l <> [] -> Forall (has s) l ->
    shp rho (collapse N l) = Some s /\ forall i j, val rho (collapse N l) i j = bigv l i j.
  Proof using op_comm op_u shp_N val_N.
    intros Hne H. destruct l as [|x [|y l]]; [congruence | |]; cbn [collapse].
    - inversion H; subst. split; [assumption|]. intros. symmetry. apply bigv1.
    - split; [|intros; apply val_N]. rewrite shp_N. apply shape_all_Forall. split; [discriminate | exact H].
  Qed.
End Fold.
