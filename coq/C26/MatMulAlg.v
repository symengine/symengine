(* C26 -- the algebra of (shape, entries) pairs under the matrix product: congruence,
   associativity, identities, scalars; the products of concrete leaves computed by
   mul_diag_diag / mul_dense_diag / mul_diag_dense / mul_dense_dense (matrix_mul.cpp); and the step of
   the folding loop of matrix_mul in terms of the one concrete operand it holds back. *)
From SE Require Import C26.MatSpec C26.MatLemmas.
From Coq Require Import Lia Ring.
Local Open Scope nat_scope.
Local Open Scope res_scope.

Definition prod_shape (a b : option shape) : option shape :=
  match a, b with
  | Some sa, Some sb => if snd sa =? fst sb then Some (fst sa, snd sb) else None
  | _, _ => None
  end.

Definition prod_sv (a b : sval) : sval :=
  (prod_shape (fst a) (fst b),
   fun i j => esum_n (cols_of (fst a)) (fun k => emul (snd a i k) (snd b k j))).

Fixpoint chain_sv (l : list sval) : sval :=
  match l with
  | [] => (None, fun _ _ => e0)
  | [x] => x
  | x :: r => prod_sv x (chain_sv r)
  end.

Definition scale_sv (k : ent) (a : sval) : sval := (fst a, fun i j => emul k (snd a i j)).
Definition ident_sv (n : nat) : sval := (Some (n, n), delta).

(* same shape, same entries inside the shape *)
Definition sv_eq (a b : sval) : Prop :=
  fst a = fst b /\
  forall s, fst a = Some s -> forall i j, i < fst s -> j < snd s -> snd a i j = snd b i j.

Lemma sv_eq_refl a : sv_eq a a.
Proof. split; [reflexivity | intros; reflexivity]. Qed.
Lemma sv_eq_sym a b : sv_eq a b -> sv_eq b a.
Proof. intros [A B]. split; [auto|]. intros s Hs i j Hi Hj. symmetry. apply (B s); congruence. Qed.
Lemma sv_eq_trans a b c : sv_eq a b -> sv_eq b c -> sv_eq a c.
Proof.
  intros [A B] [C D]. split; [congruence|]. intros s Hs i j Hi Hj.
  rewrite (B s) by assumption. apply (D s); congruence.
Qed.

Lemma chain_sv_cons x y r : chain_sv (x :: y :: r) = prod_sv x (chain_sv (y :: r)).
Proof. reflexivity. Qed.

(* the chain of the specification is the iterated product *)
Lemma shape_chain_cons a b r : shape_chain (a :: b :: r) = prod_shape a (shape_chain (b :: r)).
Proof. reflexivity. Qed.

Lemma chain_sv_shape l : fst (chain_sv l) = shape_chain (map fst l).
Proof.
  induction l as [|x l IH]; [reflexivity|]. destruct l as [|y l]; [reflexivity|].
  rewrite chain_sv_cons. change (map fst (x :: y :: l)) with (fst x :: fst y :: map fst l).
  rewrite shape_chain_cons. change (fst y :: map fst l) with (map fst (y :: l)). rewrite <- IH. reflexivity.
Qed.

Lemma val_chain_cons x y r i j :
  val_chain (x :: y :: r) i j = esum_n (cols_of (fst x)) (fun k => emul (snd x i k) (val_chain (y :: r) k j)).
Proof. reflexivity. Qed.

Lemma chain_sv_val l i j : snd (chain_sv l) i j = val_chain l i j.
Proof.
  revert i j. induction l as [|x l IH]; intros i j; [reflexivity|]. destruct l as [|y l]; [reflexivity|].
  rewrite chain_sv_cons, val_chain_cons. cbn [prod_sv snd]. apply esum_n_ext. intros k _. now rewrite IH.
Qed.

Lemma sem_MMul_sv rho k fs :
  fst (sem rho (MMul k fs)) = fst (scale_sv k (chain_sv (map (sem rho) fs))) /\
  forall i j, snd (sem rho (MMul k fs)) i j = snd (scale_sv k (chain_sv (map (sem rho) fs))) i j.
Proof.
  cbn [sem fst snd scale_sv]. split.
  - now rewrite chain_sv_shape.
  - intros. now rewrite chain_sv_val.
Qed.

Lemma prod_sv_cong a a' b b' : sv_eq a a' -> sv_eq b b' -> sv_eq (prod_sv a b) (prod_sv a' b').
Proof.
  intros [A1 A2] [B1 B2]. split.
  - cbn [prod_sv fst]. now rewrite A1, B1.
  - cbn [prod_sv fst snd]. intros s Hs i j Hi Hj. rewrite <- A1.
    unfold prod_shape in Hs. destruct (fst a) as [sa|] eqn:Ea; [|discriminate].
    destruct (fst b) as [sb|] eqn:Eb; [|discriminate].
    destruct (Nat.eqb_spec (snd sa) (fst sb)) as [E|]; [|discriminate]. inversion Hs; subst s. cbn [fst snd] in *.
    cbn [cols_of]. apply esum_n_ext. intros k Hk.
    rewrite (A2 sa eq_refl i k Hi Hk). rewrite (B2 sb eq_refl k j) by lia. reflexivity.
Qed.

Lemma prod_shape_assoc a b c :
  prod_shape (prod_shape a b) c = prod_shape a (prod_shape b c).
Proof.
  unfold prod_shape. destruct a as [sa|], b as [sb|], c as [sc|]; try reflexivity.
  - destruct (snd sa =? fst sb) eqn:E1, (snd sb =? fst sc) eqn:E2; cbn [fst snd]; rewrite ?E1, ?E2; reflexivity.
  - destruct (snd sa =? fst sb); reflexivity.
Qed.

Lemma prod_shape_cols a b s : prod_shape a b = Some s -> cols_of (prod_shape a b) = cols_of b.
Proof.
  unfold prod_shape. destruct a as [sa|], b as [sb|]; try discriminate.
  destruct (snd sa =? fst sb); [|discriminate]. reflexivity.
Qed.

Lemma prod_sv_assoc a b c : sv_eq (prod_sv (prod_sv a b) c) (prod_sv a (prod_sv b c)).
Proof.
  split.
  - cbn [prod_sv fst]. apply prod_shape_assoc.
  - cbn [prod_sv fst snd]. intros s Hs i j _ _.
    assert (Hab : exists sab, prod_shape (fst a) (fst b) = Some sab).
    { unfold prod_shape in Hs at 1. destruct (prod_shape (fst a) (fst b)); [eauto | discriminate]. }
    destruct Hab as [sab Hab]. rewrite (prod_shape_cols _ _ _ Hab).
    (* sum over l < cols b of (sum over k < cols a of a i k * b k l) * c l j *)
    rewrite (esum_n_ext _ _ (fun l => esum_n (cols_of (fst a)) (fun k => emul (snd a i k) (emul (snd b k l) (snd c l j))))).
    2:{ intros l _. rewrite <- esum_n_scale_r. apply esum_n_ext. intros k _. ring. }
    rewrite esum_n_swap. apply esum_n_ext. intros k _. now rewrite esum_n_scale_l.
Qed.

Lemma chain_sv_app la lb :
  la <> [] -> lb <> [] -> sv_eq (chain_sv (la ++ lb)) (prod_sv (chain_sv la) (chain_sv lb)).
Proof.
  intros Ha Hb. induction la as [|x la IH]; [congruence|].
  destruct la as [|y la].
  - cbn [app]. destruct lb as [|z lb]; [congruence|]. rewrite chain_sv_cons. apply sv_eq_refl.
  - change ((x :: y :: la) ++ lb) with (x :: ((y :: la) ++ lb)).
    assert (E : exists z r, (y :: la) ++ lb = z :: r) by (cbn; eauto). destruct E as (z & r & E).
    rewrite E, chain_sv_cons, <- E. rewrite chain_sv_cons.
    eapply sv_eq_trans; [apply prod_sv_cong; [apply sv_eq_refl | apply IH; discriminate]|].
    apply sv_eq_sym. apply prod_sv_assoc.
Qed.

Lemma prod_ident_r a s : fst a = Some s -> sv_eq (prod_sv a (ident_sv (snd s))) a.
Proof.
  destruct a as [sa fa]. cbn [fst]. intros ->. destruct s as [r c]. split.
  - cbn [prod_sv ident_sv fst snd prod_shape]. now rewrite Nat.eqb_refl.
  - cbn [prod_sv ident_sv fst snd prod_shape cols_of]. rewrite Nat.eqb_refl.
    intros s' Hs' i j Hi Hj. inversion Hs'; subst s'. cbn [fst snd] in *.
    rewrite esum_n_delta_r. apply Nat.ltb_lt in Hj. now rewrite Hj.
Qed.

Lemma prod_ident_l a s : fst a = Some s -> sv_eq (prod_sv (ident_sv (fst s)) a) a.
Proof.
  destruct a as [sa fa]. cbn [fst]. intros ->. destruct s as [r c]. split.
  - cbn [prod_sv ident_sv fst snd prod_shape]. now rewrite Nat.eqb_refl.
  - cbn [prod_sv ident_sv fst snd prod_shape cols_of]. rewrite Nat.eqb_refl.
    intros s' Hs' i j Hi Hj. inversion Hs'; subst s'. cbn [fst snd] in *.
    rewrite esum_n_delta_l. apply Nat.ltb_lt in Hi. now rewrite Hi.
Qed.

Lemma scale_sv_cong k a b : sv_eq a b -> sv_eq (scale_sv k a) (scale_sv k b).
Proof.
  intros [A B]. split; [exact A|]. cbn [scale_sv fst snd]. intros s Hs i j Hi Hj. now rewrite (B s Hs i j Hi Hj).
Qed.

Lemma scale_sv_one a : sv_eq (scale_sv e1 a) a.
Proof. split; [reflexivity|]. cbn [scale_sv snd]. intros. ring. Qed.

Lemma scale_sv_scale k1 k2 a : sv_eq (scale_sv k1 (scale_sv k2 a)) (scale_sv (emul k1 k2) a).
Proof. split; [reflexivity|]. cbn [scale_sv snd]. intros. ring. Qed.

Lemma scale_sv_eq k k' a : k = k' -> sv_eq (scale_sv k a) (scale_sv k' a).
Proof. intros ->. apply sv_eq_refl. Qed.

Lemma prod_scale_l k a b : sv_eq (prod_sv (scale_sv k a) b) (scale_sv k (prod_sv a b)).
Proof.
  split; [reflexivity|]. cbn [prod_sv scale_sv fst snd]. intros s _ i j _ _.
  rewrite <- esum_n_scale_l. apply esum_n_ext. intros. ring.
Qed.

Lemma prod_scale_r k a b : sv_eq (prod_sv a (scale_sv k b)) (scale_sv k (prod_sv a b)).
Proof.
  split; [reflexivity|]. cbn [prod_sv scale_sv fst snd]. intros s _ i j _ _.
  rewrite <- esum_n_scale_l. apply esum_n_ext. intros. ring.
Qed.

Lemma chain_replace_r k m m' lb :
  m <> [] -> m' <> [] -> sv_eq (chain_sv m) (scale_sv k (chain_sv m')) ->
  sv_eq (chain_sv (m ++ lb)) (scale_sv k (chain_sv (m' ++ lb))).
Proof.
  intros Hm Hm' H. destruct lb as [|z lb]; [now rewrite !app_nil_r|].
  eapply sv_eq_trans; [apply chain_sv_app; [assumption | discriminate]|].
  eapply sv_eq_trans; [apply prod_sv_cong; [exact H | apply sv_eq_refl]|].
  eapply sv_eq_trans; [apply prod_scale_l|].
  apply scale_sv_cong. apply sv_eq_sym. apply chain_sv_app; [assumption | discriminate].
Qed.

Lemma chain_replace_l k la m m' :
  m <> [] -> m' <> [] -> sv_eq (chain_sv m) (scale_sv k (chain_sv m')) ->
  sv_eq (chain_sv (la ++ m)) (scale_sv k (chain_sv (la ++ m'))).
Proof.
  intros Hm Hm' H. destruct la as [|z la]; [exact H|].
  eapply sv_eq_trans; [apply chain_sv_app; [discriminate | assumption]|].
  eapply sv_eq_trans; [apply prod_sv_cong; [apply sv_eq_refl | exact H]|].
  eapply sv_eq_trans; [apply prod_scale_r|].
  apply scale_sv_cong. apply sv_eq_sym. apply chain_sv_app; [discriminate | assumption].
Qed.

Lemma chain_replace k la m m' lb :
  m <> [] -> m' <> [] -> sv_eq (chain_sv m) (scale_sv k (chain_sv m')) ->
  sv_eq (chain_sv (la ++ m ++ lb)) (scale_sv k (chain_sv (la ++ m' ++ lb))).
Proof.
  intros Hm Hm' H. apply chain_replace_l.
  - destruct m; [congruence | discriminate].
  - destruct m'; [congruence | discriminate].
  - now apply chain_replace_r.
Qed.

Lemma chain_replace1 la m m' lb :
  m <> [] -> m' <> [] -> sv_eq (chain_sv m) (chain_sv m') ->
  sv_eq (chain_sv (la ++ m ++ lb)) (chain_sv (la ++ m' ++ lb)).
Proof.
  intros Hm Hm' H.
  eapply sv_eq_trans; [apply (chain_replace e1); eauto|].
  - eapply sv_eq_trans; [exact H | apply sv_eq_sym, scale_sv_one].
  - apply scale_sv_one.
Qed.

Definition dense_of (r : nat * nat * list ent) : mexpr := let '(m, n, v) := r in MDense m n v.

(* mul_dense_diag, mul_diag_dense and mul_dense_dense are a size guard followed by a table *)
Definition guarded_tab (g : bool) (m n : nat) (f : nat -> nat -> res ent) : res (nat * nat * list ent) :=
  if negb g then ErrExn EXN_DOMAIN else do p <- tab2 m n f; Ok (m, n, p).

Lemma guarded_tab_Ok g m n f r :
  guarded_tab g m n f = Ok r -> g = true /\ exists p, tab2 m n f = Ok p /\ r = (m, n, p).
Proof.
  unfold guarded_tab. destruct g; [|discriminate]. cbn [negb].
  destruct (tab2 m n f) as [p| | |]; cbn [bind]; try discriminate. intros [= <-]. eauto.
Qed.

Lemma val_MDiag_delta rho d i j : val rho (MDiag d) i j = emul (nth i d e0) (delta i j).
Proof. rewrite val_MDiag. unfold delta. destruct (i =? j); ring. Qed.

Lemma sem_shape rho e : fst (sem rho e) = shp rho e. Proof. reflexivity. Qed.
Lemma sem_val rho e i j : snd (sem rho e) i j = val rho e i j. Proof. reflexivity. Qed.

Lemma mul_diag_diag_sv rho d0 d p :
  mul_diag_diag d0 d = Ok p -> length d0 = length d ->
  sv_eq (sem rho (MDiag p)) (prod_sv (sem rho (MDiag d0)) (sem rho (MDiag d))).
Proof.
  intros H L. unfold mul_diag_diag in H. destruct (Nat.eqb _ _) eqn:EG in H; cbn [negb] in H; [|discriminate].
  apply zipc0_spec in H; [|assumption]. destruct H as [Lp Hn].
  split.
  - cbn [prod_sv fst]. rewrite !sem_shape, !shp_MDiag. unfold prod_shape. cbn [fst snd].
    rewrite L, Nat.eqb_refl, Lp. congruence.
  - rewrite sem_shape, shp_MDiag. intros s Hs i j Hi Hj. inversion Hs; subst s. cbn [fst snd] in *.
    cbn [prod_sv snd]. rewrite !sem_shape, shp_MDiag. cbn [cols_of snd].
    rewrite sem_val, val_MDiag_delta.
    rewrite (esum_n_ext _ _ (fun k => emul (nth i d0 e0) (emul (delta i k) (emul (nth k d e0) (delta k j))))).
    2:{ intros k _. rewrite !sem_val, !val_MDiag_delta. ring. }
    rewrite esum_n_scale_l, esum_n_delta_l.
    assert (Hi' : i <? length d0 = true) by (apply Nat.ltb_lt; lia). rewrite Hi'.
    rewrite Hn. rewrite Lp in Hi. apply Nat.ltb_lt in Hi. rewrite Hi. ring.
Qed.

Lemma mul_dense_diag_sv rho m n v d r :
  mul_dense_diag m n v d = Ok r -> length v = m * n -> length d = n ->
  sv_eq (sem rho (dense_of r)) (prod_sv (sem rho (MDense m n v)) (sem rho (MDiag d))).
Proof.
  intros H Lv Ld. apply guarded_tab_Ok in H. destruct H as (_ & p & E & ->). cbn [dense_of].
  apply (tab2_spec _ _ _ _ e0) in E. destruct E as [Lp Hn].
  split.
  - cbn [prod_sv fst]. rewrite !sem_shape, !shp_MDense, shp_MDiag, Lp, Lv, Nat.eqb_refl.
    unfold prod_shape. cbn [fst snd]. rewrite Ld, Nat.eqb_refl. reflexivity.
  - rewrite sem_shape, shp_MDense, Lp, Nat.eqb_refl. intros s Hs i j Hi Hj. inversion Hs; subst s. cbn [fst snd] in *.
    cbn [prod_sv snd]. rewrite !sem_shape, shp_MDense, Lv, Nat.eqb_refl. cbn [cols_of snd].
    rewrite sem_val, val_MDense.
    rewrite (esum_n_ext _ _ (fun k => emul (emul (nth (i * n + k) v e0) (nth k d e0)) (delta k j))).
    2:{ intros k _. rewrite !sem_val, val_MDense, val_MDiag_delta. ring. }
    rewrite esum_n_delta_r. assert (Hj' : j <? n = true) by (now apply Nat.ltb_lt). rewrite Hj'.
    specialize (Hn i j Hi Hj). rewrite rd_lt in Hn by lia. cbn [bind] in Hn.
    rewrite rd_lt in Hn by (rewrite Lv; apply idx_lt; lia). cbn [bind] in Hn. injection Hn as Hn. now rewrite <- Hn.
Qed.

Lemma mul_diag_dense_sv rho d m n v r :
  mul_diag_dense d m n v = Ok r -> length v = m * n -> length d = m ->
  sv_eq (sem rho (dense_of r)) (prod_sv (sem rho (MDiag d)) (sem rho (MDense m n v))).
Proof.
  intros H Lv Ld. apply guarded_tab_Ok in H. destruct H as (_ & p & E & ->). cbn [dense_of].
  apply (tab2_spec _ _ _ _ e0) in E. destruct E as [Lp Hn].
  split.
  - cbn [prod_sv fst]. rewrite !sem_shape, !shp_MDense, shp_MDiag, Lp, Lv, Nat.eqb_refl.
    unfold prod_shape. cbn [fst snd]. rewrite Ld, Nat.eqb_refl. reflexivity.
  - rewrite sem_shape, shp_MDense, Lp, Nat.eqb_refl. intros s Hs i j Hi Hj. inversion Hs; subst s. cbn [fst snd] in *.
    cbn [prod_sv snd]. rewrite !sem_shape, shp_MDiag. cbn [cols_of snd].
    rewrite sem_val, val_MDense.
    rewrite (esum_n_ext _ _ (fun k => emul (delta i k) (emul (nth i d e0) (nth (k * n + j) v e0)))).
    2:{ intros k _. rewrite !sem_val, val_MDense, val_MDiag_delta. ring. }
    rewrite esum_n_delta_l. assert (Hi' : i <? length d = true) by (apply Nat.ltb_lt; lia). rewrite Hi'.
    specialize (Hn i j Hi Hj). rewrite rd_lt in Hn by lia. cbn [bind] in Hn.
    rewrite rd_lt in Hn by (rewrite Lv; apply idx_lt; lia). cbn [bind] in Hn. injection Hn as Hn. rewrite <- Hn. ring.
Qed.

Lemma foldM_ext_step {A S} (f g : S -> A -> res S) :
  (forall s x, f s x = g s x) -> forall l s, foldM f l s = foldM g l s.
Proof.
  intros H l. induction l as [|x l IH]; intros s; cbn [foldM]; [reflexivity|].
  rewrite H. destruct (g s x); cbn [bind]; auto.
Qed.

(* the accumulation loop of mul_dense_dense *)
Lemma foldM_sum (g : nat -> res ent) l a r :
  foldM (fun acc k => do t <- g k; Ok (eadd acc t)) l a = Ok r ->
  exists ts, mapM g l = Ok ts /\ r = eadd a (esum ts).
Proof.
  revert a r. induction l as [|k l IH]; intros a r H; cbn [foldM mapM] in *.
  - inversion H; subst. exists []. split; [reflexivity|]. rewrite esum_nil. ring.
  - destruct (g k) as [t| | |] eqn:E; cbn [bind] in *; try discriminate.
    destruct (IH _ _ H) as (ts & Hts & Hr). rewrite Hts. cbn [bind]. exists (t :: ts).
    split; [reflexivity|]. rewrite Hr, esum_cons. ring.
Qed.

Lemma mul_dense_dense_sv rho am an av bm bn bv r :
  mul_dense_dense am an av bm bn bv = Ok r -> length av = am * an -> length bv = bm * bn -> an = bm ->
  sv_eq (sem rho (dense_of r)) (prod_sv (sem rho (MDense am an av)) (sem rho (MDense bm bn bv))).
Proof.
  intros H La Lb Hab. subst bm. apply guarded_tab_Ok in H. destruct H as (_ & p & E & ->). cbn [dense_of].
  apply (tab2_spec _ _ _ _ e0) in E. destruct E as [Lp Hn].
  split.
  - cbn [prod_sv fst]. rewrite !sem_shape, !shp_MDense, Lp, La, Lb, !Nat.eqb_refl.
    unfold prod_shape. cbn [fst snd]. rewrite Nat.eqb_refl. reflexivity.
  - rewrite sem_shape, shp_MDense, Lp, Nat.eqb_refl. intros s Hs i j Hi Hj. inversion Hs; subst s. cbn [fst snd] in *.
    cbn [prod_sv snd]. rewrite !sem_shape, shp_MDense, La, Nat.eqb_refl. cbn [cols_of snd].
    rewrite sem_val, val_MDense.
    specialize (Hn i j Hi Hj).
    set (g := fun k => do x <- rd av (i * an + k); do y <- rd bv (k * bn + j); Ok (emul x y)).
    rewrite (foldM_ext_step _ (fun acc k => do t <- g k; Ok (eadd acc t))) in Hn.
    2:{ intros acc k. unfold g. destruct (rd av (i * an + k)); cbn [bind]; try reflexivity.
        destruct (rd bv (k * bn + j)); reflexivity. }
    apply foldM_sum in Hn. destruct Hn as (ts & Hts & Hr).
    rewrite Hr, esum_as_esum_n.
    pose proof (mapM_length _ _ _ Hts) as Lts. rewrite seq_length in Lts. rewrite Lts.
    rewrite eadd_0_l. apply esum_n_ext. intros k Hk.
    pose proof (mapM_nth _ _ _ 0 e0 k Hts) as Hk'. rewrite seq_length in Hk'. specialize (Hk' Hk).
    rewrite seq_nth in Hk' by assumption. rewrite Nat.add_0_l in Hk'. unfold g in Hk'.
    rewrite rd_lt in Hk' by (rewrite La; apply idx_lt; lia). cbn [bind] in Hk'.
    rewrite rd_lt in Hk' by (rewrite Lb; apply idx_lt; lia). cbn [bind] in Hk'. injection Hk' as Hk'.
    rewrite <- Hk', !sem_val, !val_MDense. reflexivity.
Qed.

(* The loop of matrix_mul holds back at most one concrete operand, the product of the adjacent concrete
   factors met so far, in m_diag or in m_dense (never both); [flush] appends it to the kept operands. *)
Definition one_pending (st : mul_state) : Prop := m_diag st = None \/ m_dense st = None.

Definition pending (st : mul_state) : option mexpr :=
  match m_diag st with
  | Some d => Some (MDiag d)
  | None => option_map dense_of (m_dense st)
  end.

Definition hold (st : mul_state) (c : mexpr) : mul_state :=
  match c with
  | MDiag d => {| m_keep := m_keep st; m_diag := Some d; m_dense := None; m_ident := m_ident st |}
  | MDense m n v => {| m_keep := m_keep st; m_diag := None; m_dense := Some (m, n, v); m_ident := m_ident st |}
  | _ => st
  end.

(* the product of two concrete leaves, by the helper that fits their kinds *)
Definition mul_concrete (a b : mexpr) : res mexpr :=
  match b with
  | MDiag d =>
      match a with
      | MDiag d0 => do p <- mul_diag_diag d0 d; Ok (MDiag p)
      | MDense m0 n0 v0 => do r <- mul_dense_diag m0 n0 v0 d; Ok (dense_of r)
      | _ => Ok b
      end
  | MDense m n v =>
      match a with
      | MDiag d0 => do r <- mul_diag_dense d0 m n v; Ok (dense_of r)
      | MDense m0 n0 v0 => do r <- mul_dense_dense m0 n0 v0 m n v; Ok (dense_of r)
      | _ => Ok b
      end
  | _ => Ok b
  end.

Lemma app_nonempty {A} (l : list A) x : l ++ [x] <> [].
Proof. destruct l; discriminate. Qed.

Lemma flush_pending st : flush st = m_keep st ++ match pending st with Some c => [c] | None => [] end.
Proof.
  unfold flush, pending. destruct (m_diag st); [reflexivity|].
  destruct (m_dense st) as [[[m n] v]|]; cbn; [reflexivity | now rewrite app_nil_r].
Qed.

Lemma pending_concrete st c : pending st = Some c -> concrete c = true.
Proof.
  unfold pending. destruct (m_diag st); [now intros [= <-]|].
  destruct (m_dense st) as [[[m n] v]|]; [now intros [= <-] | discriminate].
Qed.

Lemma hold_spec st c :
  concrete c = true ->
  one_pending (hold st c) /\ m_ident (hold st c) = m_ident st /\ flush (hold st c) = m_keep st ++ [c].
Proof. destruct c; try discriminate; intros _; (split; [first [now left | now right]|]); split; reflexivity. Qed.

Lemma mul_concrete_concrete a b r :
  concrete a = true -> concrete b = true -> mul_concrete a b = Ok r -> concrete r = true.
Proof.
  destruct a; try discriminate; destruct b; try discriminate; intros _ _; cbn [mul_concrete].
  - destruct (mul_diag_diag d d0); cbn [bind]; try discriminate. now intros [= <-].
  - destruct (mul_diag_dense d m n v) as [[[? ?] ?]| | |]; cbn [bind]; try discriminate. now intros [= <-].
  - destruct (mul_dense_diag m n v d) as [[[? ?] ?]| | |]; cbn [bind]; try discriminate. now intros [= <-].
  - destruct (mul_dense_dense m n v m0 n0 v0) as [[[? ?] ?]| | |]; cbn [bind]; try discriminate. now intros [= <-].
Qed.

(* mul_step, by the kind of the factor *)
Lemma mul_step_concrete st x :
  one_pending st -> concrete x = true ->
  mul_step st x = match pending st with
                  | None => Ok (hold st x)
                  | Some c => do r <- mul_concrete c x; Ok (hold st r)
                  end.
Proof.
  intros Hone Hx. unfold pending. destruct x; try discriminate; cbn [mul_step hold].
  - destruct (m_diag st) as [d0|] eqn:Ed.
    + assert (Ede : m_dense st = None) by (destruct Hone; congruence). cbn [mul_concrete].
      destruct (mul_diag_diag d0 d); cbn [bind hold]; congruence.
    + destruct (m_dense st) as [[[m n] v]|]; cbn [option_map dense_of mul_concrete]; [|reflexivity].
      destruct (mul_dense_diag m n v d) as [[[? ?] ?]| | |]; reflexivity.
  - destruct (m_dense st) as [[[m0 n0] v0]|] eqn:Ede.
    + assert (Ed : m_diag st = None) by (destruct Hone; congruence). rewrite Ed.
      cbn [option_map dense_of mul_concrete].
      destruct (mul_dense_dense m0 n0 v0 m n v) as [[[? ?] ?]| | |]; reflexivity.
    + destruct (m_diag st) as [d0|]; cbn [option_map mul_concrete]; [|reflexivity].
      destruct (mul_diag_dense d0 m n v) as [[[? ?] ?]| | |]; reflexivity.
Qed.

Lemma mul_step_other st x :
  concrete x = false -> is_MIdent x = false ->
  mul_step st x = Ok {| m_keep := flush st ++ [x]; m_diag := None; m_dense := None; m_ident := m_ident st |}.
Proof. destruct x; try discriminate; reflexivity. Qed.

(* what a step other than an identity matrix does to the flushed operand list: it appends the factor, or
   replaces the last operand by its product with the factor, both concrete *)
Lemma mul_step_flush st x st' :
  one_pending st -> is_MIdent x = false -> mul_step st x = Ok st' ->
  one_pending st' /\ m_ident st' = m_ident st /\
  (flush st' = flush st ++ [x] \/
   exists keep c r, flush st = keep ++ [c] /\ concrete c = true /\ concrete x = true /\
                    mul_concrete c x = Ok r /\ concrete r = true /\ flush st' = keep ++ [r]).
Proof.
  intros Hone Hi H. destruct (concrete x) eqn:Hx.
  - rewrite (mul_step_concrete st x Hone Hx) in H. rewrite (flush_pending st).
    destruct (pending st) as [c|] eqn:Ep.
    + destruct (mul_concrete c x) as [r| | |] eqn:Em; cbn [bind] in H; try discriminate. injection H as <-.
      pose proof (pending_concrete st c Ep) as Hc.
      pose proof (mul_concrete_concrete c x r Hc Hx Em) as Hr.
      destruct (hold_spec st r Hr) as (A & B & C). split; [exact A|]. split; [exact B|].
      right. exists (m_keep st), c, r. repeat split; assumption || reflexivity.
    + injection H as <-. destruct (hold_spec st x Hx) as (A & B & C). split; [exact A|]. split; [exact B|].
      left. now rewrite C, app_nil_r.
  - rewrite (mul_step_other st x Hx Hi) in H. injection H as <-.
    split; [now left|]. split; [reflexivity|]. left. reflexivity.
Qed.

(* a step throws only out of the product of the held operand with a concrete factor *)
Lemma mul_step_throws st x e :
  one_pending st -> mul_step st x = ErrExn e ->
  exists keep c, flush st = keep ++ [c] /\ concrete c = true /\ concrete x = true /\ mul_concrete c x = ErrExn e.
Proof.
  intros Hone H. destruct (concrete x) eqn:Hx.
  - rewrite (mul_step_concrete st x Hone Hx) in H. rewrite (flush_pending st).
    destruct (pending st) as [c|] eqn:Ep; [|discriminate].
    destruct (mul_concrete c x) eqn:Em; cbn [bind] in H; try discriminate. injection H as <-.
    exists (m_keep st), c. pose proof (pending_concrete st c Ep). auto.
  - destruct (is_MIdent x) eqn:Hi; [destruct x; discriminate|].
    rewrite (mul_step_other st x Hx Hi) in H. discriminate.
Qed.

Lemma mul_concrete_sv rho a b r sa sb :
  concrete a = true -> concrete b = true -> mul_concrete a b = Ok r ->
  shp rho a = Some sa -> shp rho b = Some sb -> snd sa = fst sb ->
  sv_eq (sem rho r) (prod_sv (sem rho a) (sem rho b)).
Proof.
  destruct a; try discriminate; destruct b; try discriminate; intros _ _ H A B C; cbn [mul_concrete] in H.
  - rewrite shp_MDiag in A, B. injection A as <-. injection B as <-.
    destruct (mul_diag_diag d d0) eqn:Em; cbn [bind] in H; try discriminate. injection H as <-.
    now apply mul_diag_diag_sv.
  - rewrite shp_MDiag in A. injection A as <-. apply shp_MDense_Some in B. destruct B as [Lv ->].
    destruct (mul_diag_dense d m n v) eqn:Em; cbn [bind] in H; try discriminate. injection H as <-.
    now apply mul_diag_dense_sv.
  - apply shp_MDense_Some in A. destruct A as [Lv ->]. rewrite shp_MDiag in B. injection B as <-.
    destruct (mul_dense_diag m n v d) eqn:Em; cbn [bind] in H; try discriminate. injection H as <-.
    apply mul_dense_diag_sv; auto.
  - apply shp_MDense_Some in A. destruct A as [Lv ->]. apply shp_MDense_Some in B. destruct B as [Lv0 ->].
    destruct (mul_dense_dense m n v m0 n0 v0) eqn:Em; cbn [bind] in H; try discriminate. injection H as <-.
    now apply mul_dense_dense_sv.
Qed.
