(* C26 -- transpose, conjugate_matrix and size are sound (transpose.cpp, conjugate_matrix.cpp, size.cpp). *)
From SE Require Import C26.MatSpec C26.MatLemmas.
From Coq Require Import Lia Ring.
Local Open Scope nat_scope.
Local Open Scope res_scope.

Lemma Forall2_nonempty {A B} (R : A -> B -> Prop) l1 l2 : Forall2 R l1 l2 -> l1 <> [] -> l2 <> [].
Proof. destruct 1; [congruence | discriminate]. Qed.

Lemma shp_MTrans rho a : shp rho (MTrans a) = match shp rho a with Some s => Some (snd s, fst s) | None => None end.
Proof. reflexivity. Qed.
Lemma val_MTrans rho a i j : val rho (MTrans a) i j = val rho a j i.
Proof. reflexivity. Qed.
Lemma shp_MConj rho a : shp rho (MConj a) = shp rho a.
Proof. reflexivity. Qed.
Lemma val_MConj rho a i j : val rho (MConj a) i j = econj (val rho a i j).
Proof. reflexivity. Qed.

Lemma delta_sym i j : delta i j = delta j i.
Proof. unfold delta. now rewrite Nat.eqb_sym. Qed.

(* [r] denotes the image of [e]: its shape is [g] of the shape of [e], its entry (i, j) the image under [h]
   of the entry [ix i j] of [e] *)
Section Image.
  Variables (rho : env) (g : shape -> shape) (h : ent -> ent) (ix : nat -> nat -> nat * nat).

  Definition image_of (e r : mexpr) : Prop :=
    forall s, shp rho e = Some s ->
    shp rho r = Some (g s) /\
    forall i j, i < fst (g s) -> j < snd (g s) -> val rho r i j = h (val rho e (fst (ix i j)) (snd (ix i j))).

  (* a node whose entries are the [big op u] of its operands' entries, for which [h] is a morphism *)
  Variables (op : ent -> ent -> ent) (u : ent) (N : list mexpr -> mexpr).
  Hypothesis h_op : forall a b, h (op a b) = op (h a) (h b).
  Hypothesis h_u : h u = u.
  Hypothesis shp_N : forall l, shp rho (N l) = shape_all (map (shp rho) l).
  Hypothesis val_N : forall l i j, val rho (N l) i j = big op u (map (fun e => val rho e i j) l).

  Lemma image_node ts t : Forall2 image_of ts t -> image_of (N ts) (N t).
  Proof using h_op h_u shp_N val_N.
    intros H s Hs. rewrite shp_N in Hs. apply shape_all_Forall in Hs. destruct Hs as [Hne Hall].
    assert (K : Forall (fun y => shp rho y = Some (g s)) t /\
                forall i j, i < fst (g s) -> j < snd (g s) ->
                  Forall2 (fun y x => val rho y i j = h (val rho x (fst (ix i j)) (snd (ix i j)))) t ts).
    { clear Hne. induction H as [|x y ts t Hxy _ IH]; [split; [constructor | intros; constructor]|].
      inversion Hall; subst. destruct (IH H2) as [A B]. destruct (Hxy s H1) as [C D].
      split; [constructor; assumption|]. intros i j Hi Hj. constructor; auto. }
    destruct K as [A B]. split.
    - rewrite shp_N. apply shape_all_Forall. split; [eapply Forall2_nonempty; eauto | assumption].
    - intros i j Hi Hj. rewrite !val_N, (big_hom op u h) by assumption. rewrite map_map.
      apply big_Forall2. now apply B.
  Qed.
End Image.

Definition is_transpose_of rho : mexpr -> mexpr -> Prop :=
  image_of rho (fun s => (snd s, fst s)) (fun a => a) (fun i j => (j, i)).

Theorem transpose_value rho e r : transpose e = Ok r -> is_transpose_of rho e r.
Proof.
  apply (mapped_ind transpose (is_transpose_of rho)); try reflexivity.
  - exact (image_node rho _ _ _ eadd e0 MAdd (fun _ _ => eq_refl) eq_refl (shp_MAdd rho) (val_MAdd rho)).
  - exact (image_node rho _ _ _ emul e1 MHad (fun _ _ => eq_refl) eq_refl (shp_MHad rho) (val_MHad rho)).
  - clear e r. intros e r Ha Hh Ht s Hs. cbv beta. cbn [fst snd].
    destruct e; try discriminate; cbn [transpose] in Ht.
    + inversion Ht; subst. rewrite shp_MIdent in *. inversion Hs; subst. cbn [fst snd]. split; [reflexivity|].
      intros. rewrite !val_MIdent. apply delta_sym.
    + inversion Ht; subst. rewrite shp_MZero in *. inversion Hs; subst. cbn [fst snd]. split; [reflexivity|].
      intros. reflexivity.
    + inversion Ht; subst. rewrite shp_MTrans, Hs. split; [reflexivity|]. intros. reflexivity.
    + inversion Ht; subst. rewrite shp_MDiag in *. inversion Hs; subst. cbn [fst snd]. split; [reflexivity|].
      intros. rewrite !val_MDiag. rewrite (Nat.eqb_sym j i). destruct (Nat.eqb_spec i j); [subst; reflexivity | reflexivity].
    + destruct (tab2 n m (fun j i => dget n v i j)) as [t| | |] eqn:E; cbn [bind] in Ht; try discriminate.
      inversion Ht; subst. apply shp_MDense_Some in Hs. destruct Hs as [Lv ->]. cbn [fst snd].
      apply (tab2_spec _ _ _ _ e0) in E. destruct E as [Lt Hn].
      split; [rewrite shp_MDense, Lt, Nat.eqb_refl; reflexivity|].
      intros i j Hi Hj. rewrite !val_MDense. specialize (Hn i j Hi Hj). unfold dget in Hn.
      apply rd_nth in Hn. destruct Hn as [_ Hn]. symmetry. exact Hn.
    + inversion Ht; subst. rewrite shp_MTrans, Hs. split; [reflexivity|]. intros. reflexivity.
    + inversion Ht; subst. rewrite shp_MTrans, Hs. split; [reflexivity|]. intros. reflexivity.
    + injection Ht as Hr; subst r. rewrite shp_MTrans in Hs. destruct (shp rho e) as [sa|] eqn:Ea; [|discriminate].
      inversion Hs; subst. cbn [fst snd]. destruct sa; cbn [fst snd]. split; [reflexivity|].
      intros. reflexivity.
Qed.

Definition is_conj_of rho : mexpr -> mexpr -> Prop := image_of rho (fun s => s) econj (fun i j => (i, j)).

Lemma econj_invol a : econj (econj a) = a.
Proof. destruct a; apply ent_eq; unfold econj; cbn [fst snd]; ring. Qed.

Lemma nth_map_econj i d : nth i (map econj d) e0 = econj (nth i d e0).
Proof. rewrite <- econj_0 at 1. apply map_nth. Qed.

Theorem conjugate_value rho e r : conjugate_matrix e = Ok r -> is_conj_of rho e r.
Proof.
  apply (mapped_ind conjugate_matrix (is_conj_of rho)); try reflexivity.
  - exact (image_node rho _ _ _ eadd e0 MAdd econj_add econj_0 (shp_MAdd rho) (val_MAdd rho)).
  - exact (image_node rho _ _ _ emul e1 MHad econj_mul econj_1 (shp_MHad rho) (val_MHad rho)).
  - clear e r. intros e r Ha Hh Ht s Hs. cbv beta. cbn [fst snd].
    destruct e; try discriminate; cbn [conjugate_matrix] in Ht.
    + inversion Ht; subst. split; [assumption|]. intros. rewrite !val_MIdent. unfold delta.
      destruct (i =? j); [now rewrite econj_1 | now rewrite econj_0].
    + inversion Ht; subst. split; [assumption|]. intros. rewrite !val_MZero. now rewrite econj_0.
    + inversion Ht; subst. split; [assumption|]. intros. reflexivity.
    + inversion Ht; subst. rewrite shp_MDiag in *. split; [now rewrite map_length|].
      intros. rewrite !val_MDiag. destruct (i =? j); [apply nth_map_econj | now rewrite econj_0].
    + inversion Ht; subst. rewrite shp_MDense in *. split; [now rewrite map_length|].
      intros. rewrite !val_MDense. apply nth_map_econj.
    + inversion Ht; subst. split; [assumption|]. intros. reflexivity.
    + inversion Ht; subst. rewrite shp_MConj in Hs. split; [assumption|].
      intros. rewrite val_MConj. now rewrite econj_invol.
    + inversion Ht; subst. split; [assumption|]. intros. reflexivity.
Qed.

(* a reported dimension is the true one *)
Definition size_ok rho (sz : osize) (s : shape) : Prop :=
  (forall d, fst sz = Some d -> dval rho d = fst s) /\
  (forall d, snd sz = Some d -> dval rho d = snd s).

Lemma upd_dim_cases cur nw : upd_dim cur nw = cur \/ upd_dim cur nw = nw.
Proof.
  unfold upd_dim. destruct nw as [d|]; [|now left].
  destruct (dim_is_int d); [now right|]. destruct cur; [now left | now right].
Qed.

Lemma all_same_rest_ok rho s rest cur :
  size_ok rho cur s -> Forall (fun z => size_ok rho z s) rest -> size_ok rho (all_same_rest rest cur) s.
Proof.
  revert cur. induction rest as [|z rest IH]; intros cur Hc Hr; cbn [all_same_rest]; [assumption|].
  inversion Hr; subst.
  assert (Hn : size_ok rho (upd_dim (fst cur) (fst z), upd_dim (snd cur) (snd z)) s).
  { destruct Hc as [C1 C2], H1 as [Z1 Z2]. split; cbn [fst snd]; intros d Hd.
    - destruct (upd_dim_cases (fst cur) (fst z)) as [E|E]; rewrite E in Hd; auto.
    - destruct (upd_dim_cases (snd cur) (snd z)) as [E|E]; rewrite E in Hd; auto. }
  destruct (both_int _); [assumption|]. now apply IH.
Qed.

Lemma all_same_size_ok rho s sizes :
  Forall (fun z => size_ok rho z s) sizes -> size_ok rho (all_same_size sizes) s.
Proof.
  destruct sizes as [|z r]; intros H; cbn [all_same_size].
  - split; cbn; discriminate.
  - inversion H; subst. destruct (both_int z); [assumption|]. now apply all_same_rest_ok.
Qed.

Lemma shape_chain_Some l s :
  shape_chain l = Some s ->
  exists a b, hd None l = Some a /\ last l None = Some b /\ fst a = fst s /\ snd b = snd s.
Proof.
  revert s. induction l as [|x l IH]; intros s H; cbn [shape_chain] in H; [discriminate|].
  destruct l as [|y l'].
  - subst x. exists s, s. cbn. auto.
  - destruct x as [a|]; [|discriminate].
    destruct (shape_chain (y :: l')) as [b|] eqn:E; [|discriminate].
    destruct (snd a =? fst b); [|discriminate]. inversion H; subst. cbn [fst snd].
    destruct (IH b eq_refl) as (a' & b' & _ & Hl & _ & Hb).
    exists a, b'. cbn [hd]. split; [reflexivity|]. split; [exact Hl|]. split; [reflexivity | assumption].
Qed.

Lemma last_map {A B} (f : A -> B) l d : last (map f l) (f d) = f (last l d).
Proof.
  revert d. induction l as [|x l IH]; intros d; [reflexivity|].
  cbn [map]. destruct l as [|y l]; [reflexivity|].
  change (last (f x :: map f (y :: l)) (f d)) with (last (map f (y :: l)) (f d)).
  change (last (x :: y :: l) d) with (last (y :: l) d). apply IH.
Qed.

Lemma last_default_irrel {A} (l : list A) d d' : l <> [] -> last l d = last l d'.
Proof.
  induction l as [|x l IH]; intros H; [congruence|].
  destruct l as [|y l]; [reflexivity|].
  change (last (x :: y :: l) d) with (last (y :: l) d).
  change (last (x :: y :: l) d') with (last (y :: l) d'). apply IH. discriminate.
Qed.

Lemma last_cons_default {A} (x : A) l d : last (x :: l) d = last l x.
Proof.
  destruct l as [|y l]; [reflexivity|].
  change (last (x :: y :: l) d) with (last (y :: l) d). apply last_default_irrel. discriminate.
Qed.

Lemma last_In_cons {A} (x : A) l : In (last l x) (x :: l).
Proof.
  revert x. induction l as [|y l IH]; intros x; [now left|].
  right. rewrite last_cons_default. apply IH.
Qed.

Theorem size_sound rho e : forall s, shp rho e = Some s -> size_ok rho (size e) s.
Proof.
  induction e as [n|m n|x|d|m n v|ts H|k fs H|fs H|a IHa|a IHa] using mexpr_ind'; intros s Hs; cbn [size].
  - rewrite shp_MIdent in Hs. inversion Hs; subst. split; cbn [fst snd]; intros d E; inversion E; reflexivity.
  - rewrite shp_MZero in Hs. inversion Hs; subst. split; cbn [fst snd]; intros d E; inversion E; reflexivity.
  - split; cbn; discriminate.
  - rewrite shp_MDiag in Hs. inversion Hs; subst. split; cbn [fst snd]; intros d0 E; inversion E; reflexivity.
  - apply shp_MDense_Some in Hs. destruct Hs as [_ ->]. split; cbn [fst snd]; intros d0 E; inversion E; reflexivity.
  - rewrite shp_MAdd in Hs. apply shape_all_Forall in Hs. destruct Hs as [_ Hall].
    apply all_same_size_ok. apply Forall_map. rewrite Forall_forall in *. intros x Hx. apply H; auto.
  - rewrite shp_MMul in Hs. apply shape_chain_Some in Hs.
    destruct Hs as (a & b & Hh & Hl & Ha & Hb).
    destruct fs as [|f0 fr]; [discriminate|]. cbn [map hd] in Hh.
    inversion H; subst.
    cbn [map]. split; cbn [fst snd]; intros d E.
    + destruct (H2 a Hh) as [A _]. rewrite <- Ha. now apply A.
    + assert (Hlast : exists fl, In fl (f0 :: fr) /\ last (map size fr) (size f0) = size fl
                                 /\ shp rho fl = Some b).
      { exists (last fr f0). split; [apply last_In_cons|]. split; [apply last_map|].
        cbn [map] in Hl. rewrite last_cons_default in Hl. now rewrite last_map in Hl. }
      destruct Hlast as (fl & Hin & E1 & E2). rewrite E1 in E.
      rewrite Forall_forall in H. destruct (H fl Hin b E2) as [_ B]. rewrite <- Hb. now apply B.
  - rewrite shp_MHad in Hs. apply shape_all_Forall in Hs. destruct Hs as [_ Hall].
    apply all_same_size_ok. apply Forall_map. rewrite Forall_forall in *. intros x Hx. apply H; auto.
  - split; cbn; discriminate.
  - split; cbn; discriminate.
Qed.

Definition mtranspose (V : mat) : mat := mkmat (mc V) (mr V) (fun i j => mf V j i).
Definition mconj (V : mat) : mat := mkmat (mr V) (mc V) (fun i j => econj (mf V i j)).

Theorem transpose_sound rho e r V :
  transpose e = Ok r -> denote rho e = Some V ->
  exists V', denote rho r = Some V' /\ meq V' (mtranspose V).
Proof.
  intros H HV. apply denote_Some in HV. destruct HV as (s & Hs & ->).
  destruct (transpose_value rho e r H s Hs) as [A B].
  exists (mkmat (snd s) (fst s) (val rho r)). split.
  - unfold denote. now rewrite A.
  - split; [reflexivity|]. split; [reflexivity|]. cbn [mr mc mf mtranspose]. exact B.
Qed.

Theorem conjugate_matrix_sound rho e r V :
  conjugate_matrix e = Ok r -> denote rho e = Some V ->
  exists V', denote rho r = Some V' /\ meq V' (mconj V).
Proof.
  intros H HV. apply denote_Some in HV. destruct HV as (s & Hs & ->).
  destruct (conjugate_value rho e r H s Hs) as [A B].
  exists (mkmat (fst s) (snd s) (val rho r)). split.
  - unfold denote. now rewrite A.
  - split; [reflexivity|]. split; [reflexivity|]. cbn [mr mc mf mconj]. exact B.
Qed.

(* a dimension reported by size() is the dimension of the dense value *)
Theorem size_sound_final rho e V :
  denote rho e = Some V ->
  (forall d, fst (size e) = Some d -> dval rho d = mr V) /\
  (forall d, snd (size e) = Some d -> dval rho d = mc V).
Proof.
  intros HV. apply denote_Some in HV. destruct HV as (s & Hs & ->). exact (size_sound rho e s Hs).
Qed.
