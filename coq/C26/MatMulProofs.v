(* C26 -- matrix_mul preserves the value of the product (matrix_mul.cpp), outside the defect
   class named by the guard [guard_mul_zero] (a ZeroMatrix argument and an unknown outer size). *)
From SE Require Import C26.MatSpec C26.MatLemmas C26.MatMulAlg C26.MatUnaryProofs.
From Coq Require Import Lia Ring.
Local Open Scope nat_scope.
Local Open Scope res_scope.

Definition chain rho (l : list mexpr) : sval := chain_sv (map (sem rho) l).

Lemma chain_single rho x : chain rho [x] = sem rho x. Proof. reflexivity. Qed.

Lemma chain_app rho la lb :
  la <> [] -> lb <> [] -> sv_eq (chain rho (la ++ lb)) (prod_sv (chain rho la) (chain rho lb)).
Proof.
  intros Ha Hb. unfold chain. rewrite map_app. apply chain_sv_app.
  - destruct la; [congruence | discriminate].
  - destruct lb; [congruence | discriminate].
Qed.

Lemma chain_snoc rho p x : p <> [] -> sv_eq (chain rho (p ++ [x])) (prod_sv (chain rho p) (sem rho x)).
Proof. intros Hp. rewrite <- chain_single. apply chain_app; [assumption | discriminate]. Qed.

Lemma prod_shape_Some a b s :
  prod_shape a b = Some s -> exists sa sb, a = Some sa /\ b = Some sb /\ snd sa = fst sb /\ s = (fst sa, snd sb).
Proof.
  unfold prod_shape. destruct a as [sa|], b as [sb|]; try discriminate.
  destruct (Nat.eqb_spec (snd sa) (fst sb)); [|discriminate]. intros H; inversion H. eauto 6.
Qed.

(* replacing the last two operands of a chain by their product *)
Lemma chain_merge_last rho keep a b c :
  sv_eq (sem rho c) (prod_sv (sem rho a) (sem rho b)) ->
  sv_eq (chain rho ((keep ++ [a]) ++ [b])) (chain rho (keep ++ [c])).
Proof.
  intros H. rewrite <- app_assoc. cbn [app]. unfold chain. rewrite !map_app. cbn [map].
  rewrite <- (app_nil_r [sem rho a; sem rho b]), <- (app_nil_r [sem rho c]).
  apply chain_replace1; [discriminate | discriminate|].
  apply sv_eq_sym. exact H.
Qed.

(* the operands of a defined chain are defined *)
Lemma chain_defined_last rho keep a b s :
  fst (chain rho ((keep ++ [a]) ++ [b])) = Some s ->
  exists sa sb, shp rho a = Some sa /\ shp rho b = Some sb /\ snd sa = fst sb.
Proof.
  intros H. rewrite <- app_assoc in H. cbn [app] in H.
  destruct keep as [|k0 keep].
  - cbn [app] in H. unfold chain in H. cbn [map] in H. rewrite chain_sv_cons in H. cbn [chain_sv prod_sv fst] in H.
    apply prod_shape_Some in H. destruct H as (sa & sb & A & B & C & _). eauto.
  - destruct (chain_app rho (k0 :: keep) [a; b]) as [E _]; [discriminate | discriminate|].
    rewrite E in H. cbn [prod_sv fst] in H. apply prod_shape_Some in H.
    destruct H as (_ & sab & _ & B & _ & _).
    unfold chain in B. cbn [map] in B. rewrite chain_sv_cons in B. cbn [chain_sv prod_sv fst] in B.
    apply prod_shape_Some in B. destruct B as (sa & sb & A & B & C & _). eauto.
Qed.

(* the loop invariant, [p] the factors processed so far: the flushed operands have the chain product of [p];
   while there are none, [p] is empty or denotes the identity matrix whose size m_ident remembers *)
Definition mul_inv rho (p : list mexpr) (st : mul_state) : Prop :=
  one_pending st /\
  (flush st <> [] -> p <> [] /\ sv_eq (chain rho p) (chain rho (flush st))) /\
  (flush st = [] ->
     (p = [] /\ m_ident st = None) \/
     (p <> [] /\ exists n, m_ident st = Some n /\ sv_eq (chain rho p) (ident_sv (dval rho n)))).

(* appending an operand to the processed prefix and to the kept chain *)
Lemma inv_append rho p L x L' :
  p <> [] -> L <> [] -> sv_eq (chain rho p) (chain rho L) ->
  sv_eq (chain rho (L ++ [x])) (chain rho L') ->
  sv_eq (chain rho (p ++ [x])) (chain rho L').
Proof.
  intros Hp HL H1 H2.
  eapply sv_eq_trans; [apply chain_snoc; assumption|].
  eapply sv_eq_trans; [apply prod_sv_cong; [exact H1 | apply sv_eq_refl]|].
  eapply sv_eq_trans; [apply sv_eq_sym, chain_snoc; assumption|]. exact H2.
Qed.

Lemma inv_ident_prefix rho p n x s :
  p <> [] -> sv_eq (chain rho p) (ident_sv n) -> fst (chain rho (p ++ [x])) = Some s ->
  sv_eq (chain rho (p ++ [x])) (sem rho x).
Proof.
  intros Hp H Hs.
  pose proof (chain_snoc rho p x Hp) as E.
  assert (Hs' : fst (prod_sv (ident_sv n) (sem rho x)) = Some s).
  { destruct E as [E1 _]. destruct H as [H1 _]. rewrite E1 in Hs. cbn [prod_sv fst] in *. now rewrite H1 in Hs. }
  cbn [prod_sv fst ident_sv] in Hs'. apply prod_shape_Some in Hs'.
  destruct Hs' as (sa & sb & A & B & C & _). inversion A; subst sa. cbn [fst snd] in C. subst n.
  eapply sv_eq_trans; [exact E|].
  eapply sv_eq_trans; [apply prod_sv_cong; [exact H | apply sv_eq_refl]|].
  apply prod_ident_l. exact B.
Qed.

(* the chain stays defined when the processed prefix is replaced by the kept operands *)
Lemma inv_defined rho p L x s :
  p <> [] -> L <> [] -> sv_eq (chain rho p) (chain rho L) ->
  fst (chain rho (p ++ [x])) = Some s -> fst (chain rho (L ++ [x])) = Some s.
Proof.
  intros Hp HL [E _] Hs.
  destruct (chain_snoc rho L x HL) as [E1 _]. destruct (chain_snoc rho p x Hp) as [E2 _].
  rewrite E1. rewrite E2 in Hs. cbn [prod_sv fst] in *. now rewrite <- E.
Qed.

(* replacing the last kept operand by its product with the next factor *)
Lemma merge_logical rho keep c x r s :
  concrete c = true -> concrete x = true -> mul_concrete c x = Ok r ->
  fst (chain rho ((keep ++ [c]) ++ [x])) = Some s ->
  sv_eq (chain rho ((keep ++ [c]) ++ [x])) (chain rho (keep ++ [r])).
Proof.
  intros Hc Hx Hm Hs. destruct (chain_defined_last rho _ _ _ _ Hs) as (sa & sb & A & B & C).
  apply chain_merge_last. eapply mul_concrete_sv; eauto.
Qed.

Lemma mul_step_inv rho p st x st' s :
  mul_inv rho p st -> fst (chain rho (p ++ [x])) = Some s -> mul_step st x = Ok st' ->
  mul_inv rho (p ++ [x]) st'.
Proof.
  intros (Hone & HB & HC) Hs Hstep.
  destruct (is_MIdent x) eqn:Hx.
  - (* an identity matrix: dropped *)
    destruct x; try discriminate. cbn [mul_step] in Hstep. inversion Hstep; subst; clear Hstep.
    assert (Hfl : flush {| m_keep := m_keep st; m_diag := m_diag st; m_dense := m_dense st; m_ident := Some n |} = flush st)
      by reflexivity.
    split; [exact Hone|]. rewrite Hfl. split.
    + intros HL. destruct (HB HL) as [Hp E]. split; [apply app_nonempty|].
      eapply sv_eq_trans; [apply chain_snoc; assumption|].
      assert (Hs' : fst (prod_sv (chain rho p) (sem rho (MIdent n))) = Some s).
      { destruct (chain_snoc rho p (MIdent n) Hp) as [E1 _]. now rewrite <- E1. }
      cbn [prod_sv fst] in Hs'. apply prod_shape_Some in Hs'.
      destruct Hs' as (sa & sb & A & B & C & _). rewrite sem_shape, shp_MIdent in B. inversion B; subst sb.
      cbn [fst snd] in C.
      eapply sv_eq_trans; [|exact E].
      change (sem rho (MIdent n)) with (ident_sv (dval rho n)). rewrite <- C. now apply prod_ident_r.
    + intros HL. right. split; [apply app_nonempty|]. exists n. cbn [m_ident]. split; [reflexivity|].
      destruct (HC HL) as [[-> _]|[Hp (n0 & _ & E)]].
      * cbn [app]. apply sv_eq_refl.
      * eapply inv_ident_prefix; eauto.
  - (* any other operand *)
    destruct (mul_step_flush st x st' Hone Hx Hstep) as (Hone' & Hid & Hfl).
    split; [exact Hone'|].
    destruct (flush st) as [|l0 lr] eqn:EL.
    + assert (Hfl' : flush st' = [x]).
      { destruct Hfl as [E | (keep & c & r & E & _)]; [exact E | destruct keep; discriminate]. }
      rewrite Hfl'. split; [|discriminate].
      intros _. split; [apply app_nonempty|]. rewrite chain_single.
      destruct (HC eq_refl) as [[-> _]|[Hp (n0 & _ & E)]].
      * cbn [app]. rewrite chain_single. apply sv_eq_refl.
      * eapply inv_ident_prefix; eauto.
    + destruct (HB ltac:(discriminate)) as [Hp E].
      pose proof (inv_defined rho p (l0 :: lr) x s Hp ltac:(discriminate) E Hs) as Hs'.
      assert (Hsv : sv_eq (chain rho ((l0 :: lr) ++ [x])) (chain rho (flush st'))).
      { destruct Hfl as [-> | (keep & c & r & E1 & Hc & Hcx & Em & _ & ->)]; [apply sv_eq_refl|].
        rewrite E1 in *. eapply merge_logical; eauto. }
      assert (HL' : flush st' <> []).
      { intros E0. destruct Hsv as [E1 _]. rewrite Hs', E0 in E1. discriminate. }
      split; [|congruence].
      intros _. split; [apply app_nonempty|].
      apply (inv_append rho p (l0 :: lr) x (flush st')); [exact Hp | discriminate | exact E | exact Hsv].
Qed.

Lemma chain_prefix_defined rho p l s :
  p <> [] -> fst (chain rho (p ++ l)) = Some s -> exists s', fst (chain rho p) = Some s'.
Proof.
  intros Hp H. destruct l as [|y l]; [rewrite app_nil_r in H; eauto|].
  destruct (chain_app rho p (y :: l) Hp ltac:(discriminate)) as [E _]. rewrite E in H.
  cbn [prod_sv fst] in H. apply prod_shape_Some in H. destruct H as (sa & _ & A & _). eauto.
Qed.

Lemma mul_inv_nil rho : mul_inv rho [] mul_init.
Proof.
  split; [now left|]. split; [intros H; exfalso; apply H; reflexivity|].
  intros _. left. split; reflexivity.
Qed.

Lemma mul_loop_inv rho l s st :
  fst (chain rho l) = Some s -> foldM mul_step l mul_init = Ok st -> mul_inv rho l st.
Proof.
  intros Hs Hf. refine (foldM_inv mul_step (mul_inv rho) l _ st (mul_inv_nil rho) Hf _).
  intros q x r s0 s1 El Hq Hx.
  destruct (chain_prefix_defined rho (q ++ [x]) r s (app_nonempty q x)) as [sq Hsq].
  { rewrite <- app_assoc. cbn [app]. now rewrite <- El. }
  exact (mul_step_inv rho q s0 x s1 sq Hq Hsq Hx).
Qed.

Definition Kargs (args : list marg) : ent :=
  fold_right (fun a k => match a with AScal q => emul q k | AMat _ => k end) e1 args.
Definition mats (args : list marg) : list mexpr :=
  flat_map (fun a => match a with AMat e => [e] | AScal _ => [] end) args.

Lemma naive_mul_eq args : naive_mul args = MMul (Kargs args) (mats args).
Proof. reflexivity. Qed.

Lemma sem_MMul_sveq rho k fs : sv_eq (sem rho (MMul k fs)) (scale_sv k (chain rho fs)).
Proof.
  destruct (sem_MMul_sv rho k fs) as [A B]. split; [exact A|]. intros; apply B.
Qed.

Lemma chain_flatten rho acc k fs rest :
  fs <> [] ->
  sv_eq (chain rho (acc ++ [MMul k fs] ++ rest)) (scale_sv k (chain rho (acc ++ fs ++ rest))).
Proof.
  intros Hfs. unfold chain. rewrite !map_app. cbn [map].
  apply chain_replace; [discriminate | destruct fs; [congruence | discriminate]|].
  apply sem_MMul_sveq.
Qed.

Lemma expand_sv rho args : forall s acc,
  Forall (fun e => exists sh, shp rho e = Some sh) (mats args) ->
  sv_eq (scale_sv (fst (expand_mul args s acc)) (chain rho (snd (expand_mul args s acc))))
        (scale_sv (emul s (Kargs args)) (chain rho (acc ++ mats args))).
Proof.
  induction args as [|a args IH]; intros s acc Hd; cbn [expand_mul].
  - cbn [fst snd Kargs mats fold_right flat_map]. rewrite app_nil_r. apply scale_sv_eq. ring.
  - destruct a as [q|e].
    + cbn [Kargs mats fold_right flat_map app] in *.
      eapply sv_eq_trans; [apply IH; exact Hd|]. apply scale_sv_eq. unfold Kargs. ring.
    + assert (Hd' : Forall (fun e => exists sh, shp rho e = Some sh) (mats args)).
      { cbn [mats flat_map app] in Hd. now inversion Hd. }
      assert (He : exists sh, shp rho e = Some sh).
      { cbn [mats flat_map app] in Hd. now inversion Hd. }
      assert (Hgen : sv_eq (scale_sv (fst (expand_mul args s (acc ++ [e]))) (chain rho (snd (expand_mul args s (acc ++ [e])))))
                           (scale_sv (emul s (Kargs (AMat e :: args))) (chain rho (acc ++ mats (AMat e :: args))))).
      { eapply sv_eq_trans; [apply IH; exact Hd'|]. cbn [Kargs mats fold_right flat_map].
        rewrite <- app_assoc. cbn [app]. apply sv_eq_refl. }
      destruct e; try exact Hgen.
      (* a nested MatrixMul *)
      clear Hgen. destruct He as [sh He].
      assert (Hfs : fs <> []).
      { intros ->. unfold shp in He. cbn in He. discriminate. }
      eapply sv_eq_trans; [apply IH; exact Hd'|].
      cbn [Kargs mats fold_right flat_map]. fold (Kargs args). fold (mats args).
      rewrite <- app_assoc.
      eapply sv_eq_trans; [|apply scale_sv_cong; apply sv_eq_sym; apply (chain_flatten rho acc k fs (mats args) Hfs)].
      eapply sv_eq_trans; [|apply sv_eq_sym, scale_sv_scale]. apply scale_sv_eq. ring.
Qed.

Lemma sv_eq_value rho a b s :
  sv_eq (sem rho a) (sem rho b) -> shp rho b = Some s ->
  shp rho a = Some s /\ forall i j, i < fst s -> j < snd s -> val rho a i j = val rho b i j.
Proof.
  intros [A B] Hs. unfold shp, val in *. split; [congruence|]. intros i j Hi Hj. apply (B s); congruence.
Qed.

Lemma check_mul_nonempty l : check_matching_mul_sizes l = Ok tt -> l <> [].
Proof. intros H ->. discriminate. Qed.

Lemma defined_operands rho l s :
  shape_chain (map (shp rho) l) = Some s -> Forall (fun e => exists sh, shp rho e = Some sh) l.
Proof.
  revert s. induction l as [|x l IH]; intros s Hs; [constructor|].
  destruct l as [|y l].
  - cbn in Hs. constructor; [eauto | constructor].
  - change (map (shp rho) (x :: y :: l)) with (shp rho x :: shp rho y :: map (shp rho) l) in Hs.
    rewrite shape_chain_cons in Hs. apply prod_shape_Some in Hs.
    destruct Hs as (sa & sb & A & B & _). constructor; [eauto|]. eapply IH. exact B.
Qed.

(* the expanded factors with the collected scalar denote the product, when that is defined *)
Lemma expand_value rho args s scalar expanded :
  expand_mul args e1 [] = (scalar, expanded) -> shp rho (naive_mul args) = Some s ->
  sv_eq (scale_sv scalar (chain rho expanded)) (sem rho (naive_mul args)) /\
  fst (chain rho expanded) = Some s.
Proof.
  intros Ee Hs. rewrite naive_mul_eq in *.
  assert (Hdef : Forall (fun e => exists sh, shp rho e = Some sh) (mats args)).
  { rewrite shp_MMul in Hs. eapply defined_operands; eauto. }
  pose proof (expand_sv rho args e1 [] Hdef) as Hexp. rewrite Ee in Hexp. cbn [fst snd app] in Hexp.
  assert (Hfin : sv_eq (scale_sv scalar (chain rho expanded)) (sem rho (MMul (Kargs args) (mats args)))).
  { eapply sv_eq_trans; [exact Hexp|].
    eapply sv_eq_trans; [|apply sv_eq_sym, sem_MMul_sveq]. apply scale_sv_eq. ring. }
  split; [exact Hfin|]. destruct Hfin as [E _]. cbn [scale_sv fst] in E. unfold shp in Hs. congruence.
Qed.

Definition zero_sv (a : sval) : Prop :=
  forall s, fst a = Some s -> forall i j, i < fst s -> j < snd s -> snd a i j = e0.

Lemma prod_zero_l a b : zero_sv a -> zero_sv (prod_sv a b).
Proof.
  intros Ha s Hs i j Hi Hj. cbn [prod_sv fst snd] in *. apply prod_shape_Some in Hs.
  destruct Hs as (sa & sb & A & B & C & ->). cbn [fst snd] in *. rewrite A. cbn [cols_of].
  rewrite <- (esum_n_zero (snd sa)). apply esum_n_ext. intros k Hk. rewrite (Ha sa A i k Hi Hk). ring.
Qed.

Lemma prod_zero_r a b : zero_sv b -> zero_sv (prod_sv a b).
Proof.
  intros Hb s Hs i j Hi Hj. cbn [prod_sv fst snd] in *. apply prod_shape_Some in Hs.
  destruct Hs as (sa & sb & A & B & C & ->). cbn [fst snd] in *. rewrite A. cbn [cols_of].
  rewrite <- (esum_n_zero (snd sa)). apply esum_n_ext. intros k Hk.
  rewrite (Hb sb B k j) by lia. ring.
Qed.

Lemma chain_zero l z : In z l -> zero_sv z -> zero_sv (chain_sv l).
Proof.
  induction l as [|x l IH]; intros Hin Hz; [destruct Hin|].
  destruct l as [|y l].
  - destruct Hin as [->|[]]. exact Hz.
  - rewrite chain_sv_cons. destruct Hin as [->|Hin].
    + now apply prod_zero_l.
    + apply prod_zero_r. now apply IH.
Qed.

Lemma first_zero_arg_spec args z :
  first_zero_arg args = Some z -> In z (mats args) /\ is_MZero z = true.
Proof. unfold first_zero_arg. intros H. apply find_some in H. exact H. Qed.

(* a ZeroMatrix argument, the outer sizes known: ZeroMatrix of those sizes *)
Lemma zero_result_value rho args expanded z s :
  first_zero_arg args = Some z -> outer_known expanded = true ->
  fst (chain rho expanded) = Some s -> shp rho (naive_mul args) = Some s ->
  sv_eq (sem rho (zero_result expanded z)) (sem rho (naive_mul args)).
Proof.
  intros Ez Hgz Hsh Hs. rewrite naive_mul_eq in *.
  destruct (first_zero_arg_spec _ _ Ez) as [Hin Hz].
  unfold outer_known in Hgz. unfold zero_result.
  destruct expanded as [|f0 fr]; [discriminate|]. cbn [map] in *.
  destruct (fst (size f0)) as [nr|] eqn:Er; [|discriminate].
  destruct (snd (last (map size fr) (size f0))) as [nc|] eqn:Ecl; [|discriminate].
  (* the sizes are the true ones *)
  unfold chain in Hsh. rewrite chain_sv_shape, map_map in Hsh.
  change (map (fun x => fst (sem rho x)) (f0 :: fr)) with (map (shp rho) (f0 :: fr)) in Hsh.
  apply shape_chain_Some in Hsh. destruct Hsh as (sa & sb & Hh & Hl & Ha & Hb).
  cbn [map hd] in Hh.
  assert (Hr : dval rho nr = fst s).
  { destruct (size_sound rho f0 sa Hh) as [A _]. rewrite <- Ha. now apply A. }
  assert (Hc : dval rho nc = snd s).
  { cbn [map] in Hl. rewrite last_cons_default, last_map in Hl. rewrite last_map in Ecl.
    destruct (size_sound rho (last fr f0) sb Hl) as [_ B]. rewrite <- Hb. now apply B. }
  split.
  - rewrite !sem_shape, shp_MZero, Hs, Hr, Hc. now destruct s.
  - rewrite sem_shape, shp_MZero. intros s' Hs' i j Hi Hj. inversion Hs'; subst s'. cbn [fst snd] in *.
    rewrite sem_val, val_MZero. symmetry.
    destruct (sem_MMul_sv rho (Kargs args) (mats args)) as [_ B]. rewrite B. cbn [scale_sv snd].
    assert (Hzero : zero_sv (chain_sv (map (sem rho) (mats args)))).
    { apply (chain_zero _ (sem rho z)); [now apply in_map|].
      destruct z; try discriminate. intros s0 _ i0 j0 _ _. reflexivity. }
    rewrite (Hzero s); [ring | | lia | lia].
    unfold shp in Hs. cbn [sem fst] in Hs. now rewrite chain_sv_shape.
Qed.

(* the rebuilt product denotes scalar * (chain of the factors the loop went through) *)
Lemma mul_rebuild_value rho scalar l st :
  l <> [] -> mul_inv rho l st ->
  sv_eq (sem rho (mul_rebuild scalar st)) (scale_sv scalar (chain rho l)).
Proof.
  intros Hne (_ & HB & HC). unfold mul_rebuild.
  set (keep := match flush st, m_ident st with [], Some n => [MIdent n] | k, _ => k end).
  assert (Hkeep : keep <> [] /\ sv_eq (chain rho l) (chain rho keep)).
  { subst keep. destruct (flush st) as [|x r] eqn:EL.
    - destruct (HC eq_refl) as [[E0 _]|[_ (n & Hn & E)]]; [congruence|].
      rewrite Hn. split; [discriminate|]. rewrite chain_single. exact E.
    - split; [discriminate|]. now apply HB. }
  destruct Hkeep as [Hkne Hk].
  assert (Hgen : sv_eq (sem rho (MMul scalar keep)) (scale_sv scalar (chain rho l))).
  { eapply sv_eq_trans; [apply sem_MMul_sveq|]. apply scale_sv_cong. apply sv_eq_sym. exact Hk. }
  destruct keep as [|x [|y r]]; [congruence | | exact Hgen].
  destruct (e_eqb scalar e1) eqn:Es; [|exact Hgen].
  apply e_eqb_eq in Es. subst scalar.
  eapply sv_eq_trans; [|apply sv_eq_sym, scale_sv_one]. rewrite chain_single in Hk.
  apply sv_eq_sym. exact Hk.
Qed.

Lemma mul_body_value rho args res s :
  mul_body args = Ok res ->
  guard_mul_zero args = false ->
  shp rho (naive_mul args) = Some s ->
  sv_eq (sem rho res) (sem rho (naive_mul args)).
Proof.
  intros Hm Hgz Hs. unfold mul_body in Hm. unfold guard_mul_zero in Hgz.
  destruct (expand_mul args e1 []) as [scalar expanded] eqn:Ee. cbn [snd] in Hgz.
  destruct (expand_value rho args s scalar expanded Ee Hs) as [Hfin Hsh].
  destruct (check_matching_mul_sizes expanded) as [[]| | |] eqn:Ec; cbn [bind] in Hm; try discriminate.
  destruct (first_zero_arg args) as [z|] eqn:Ez.
  - injection Hm as <-. apply negb_false_iff in Hgz. now apply (zero_result_value rho args expanded z s).
  - destruct (foldM mul_step expanded mul_init) as [st| | |] eqn:Ef; cbn [bind] in Hm; try discriminate.
    injection Hm as <-. eapply sv_eq_trans; [|exact Hfin].
    apply mul_rebuild_value; [exact (check_mul_nonempty _ Ec) | exact (mul_loop_inv rho expanded s st Hsh Ef)].
Qed.

Theorem matrix_mul_value rho args res s :
  matrix_mul args = Ok res ->
  guard_mul_zero args = false ->
  shp rho (naive_mul args) = Some s ->
  shp rho res = Some s /\
  forall i j, i < fst s -> j < snd s -> val rho res i j = val rho (naive_mul args) i j.
Proof.
  rewrite matrix_mul_eq. intros Hm Hgz Hs. apply sv_eq_value; [|exact Hs].
  destruct args as [|[q0|e0'] [|a1 args'']]; try discriminate; [eapply mul_body_value; eauto | | eapply mul_body_value; eauto].
  (* a single matrix argument *)
  injection Hm as <-. rewrite naive_mul_eq. cbn [Kargs mats fold_right flat_map app].
  eapply sv_eq_trans; [|apply sv_eq_sym, sem_MMul_sveq]. rewrite chain_single.
  apply sv_eq_sym, scale_sv_one.
Qed.

(* X * ZeroMatrix(3,4) with X a matrix symbol: the result is ZeroMatrix(3,4) whatever the number
   of rows of X *)
Definition mul_zero_witness : list marg := [AMat (MSym 1); AMat (MZero (DInt 3) (DInt 4))].

Theorem matrix_mul_zero_shape_refuted :
  exists args res rho V, matrix_mul args = Ok res /\
    denote rho (naive_mul args) = Some V /\
    forall V', denote rho res = Some V' -> mr V' <> mr V.
Proof.
  exists mul_zero_witness, (MZero (DInt 3) (DInt 4)),
         {| dimv := fun _ => 0; matv := fun _ => mkmat 2 3 (fun _ _ => e0) |}.
  eexists. split; [vm_compute; reflexivity|]. split; [reflexivity|].
  intros V' H. inversion H; subst. cbn. discriminate.
Qed.

(* matrix_mul(args) denotes (product of the scalars) * (chain product of the matrices) *)
Theorem matrix_mul_sound_guarded rho args res :
  matrix_mul args = Ok res -> guard_mul_zero args = false -> same_value rho res (naive_mul args).
Proof. intros H G. apply value_to_denote. intros s Hs. eapply matrix_mul_value; eauto. Qed.
