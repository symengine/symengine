(* C26 obligation: each operation maps well-formed operands to a well-formed result. *)
From SE Require Import C26.MatSpec C26.MatAddProofs C26.MatHadProofs C26.MatWfOps.
Theorem C26_wf_preserved :
  (forall terms res, Forall (fun e => wf e = true) terms -> matrix_add terms = Ok res -> wf res = true) /\
  (forall fs res, Forall (fun e => wf e = true) fs -> hadamard_product fs = Ok res -> wf res = true) /\
  (forall args res, Forall (fun a => match a with AMat e => wf e = true | AScal _ => True end) args ->
                    matrix_mul args = Ok res -> wf res = true) /\
  (forall e r, wf e = true -> transpose e = Ok r -> wf r = true) /\
  (forall e r, wf e = true -> conjugate_matrix e = Ok r -> wf r = true).
Proof.
  split; [exact matrix_add_wf|]. split; [exact hadamard_product_wf|]. split; [exact matrix_mul_wf|].
  split; [intros e r H1 H2; exact (proj1 (transpose_wf e r H1 H2)) | intros e r H1 H2; exact (proj1 (conjugate_wf e r H1 H2))].
Qed.
Print Assumptions C26_wf_preserved.
