(* C26 -- well-formedness (the structural part of the constructors' is_canonical, and the hypothesis of
   the predicate theorems) is preserved by matrix_mul, transpose, conjugate_matrix and the factories, hence
   holds of everything a program of API calls ([run]) can build. *)
From SE Require Import C26.MatSpec C26.MatLemmas C26.MatAddProofs C26.MatHadProofs C26.MatMulAlg.
From Coq Require Import Lia.
Local Open Scope nat_scope.
Local Open Scope res_scope.

Definition mul_in (e : mexpr) : Prop := wf e = true /\ is_MMul e = false /\ is_MZero e = false.
Definition mul_kept (e : mexpr) : Prop :=
  wf e = true /\ is_MZero e = false /\ is_MIdent e = false /\ is_MMul e = false.

Lemma wf_MMul_children k fs x :
  wf (MMul k fs) = true -> In x fs -> mul_in x.
Proof.
  cbn [wf]. rewrite !andb_true_iff, orb_true_iff. intros [[_ Hk] Hw] Hin.
  rewrite forallb_forall in Hw. split; [auto|].
  destruct Hk as [Hk|Hk].
  - rewrite forallb_forall in Hk. specialize (Hk x Hin). apply negb_true_iff in Hk.
    apply orb_false_iff in Hk. destruct Hk as [Hk ?]. apply orb_false_iff in Hk. tauto.
  - destruct fs as [|[] [|]]; try discriminate. destruct Hin as [<-|[]]. split; reflexivity.
Qed.

Lemma expand_mul_in args : forall s acc,
  Forall mul_in acc ->
  Forall (fun a => match a with AMat e => wf e = true /\ is_MZero e = false | AScal _ => True end) args ->
  Forall mul_in (snd (expand_mul args s acc)).
Proof.
  induction args as [|a args IH]; intros s acc Ha Hargs; cbn [expand_mul]; [exact Ha|].
  inversion Hargs as [|? ? H0 Hr]; subst. destruct a as [q|e].
  - now apply IH.
  - destruct H0 as [Hw Hz].
    assert (Hgen : Forall mul_in (snd (expand_mul args s (acc ++ [e]))) \/ is_MMul e = true).
    { destruct (is_MMul e) eqn:Em; [now right|]. left. apply IH; [|assumption].
      apply Forall_app. split; [assumption|]. constructor; [|constructor]. repeat split; assumption. }
    destruct e; try (destruct Hgen as [G|G]; [exact G | discriminate]).
    apply IH; [|assumption]. apply Forall_app. split; [assumption|].
    apply Forall_forall. intros x Hx. eapply wf_MMul_children; eauto.
Qed.

Lemma first_zero_none args :
  first_zero_arg args = None ->
  Forall (fun a => match a with AMat e => is_MZero e = false | AScal _ => True end) args.
Proof.
  unfold first_zero_arg. intros H. apply Forall_forall. intros a Hin. destruct a as [q|e]; [exact I|].
  apply (find_none _ _ H e). apply in_flat_map. exists (AMat e). split; [assumption | now left].
Qed.

(* [p]: the factors processed so far.  Every flushed operand may stand in a MatrixMul, and once a factor has
   been processed there is an operand or a remembered identity matrix to build the result from *)
Definition mul_winv (p : list mexpr) (st : mul_state) : Prop :=
  one_pending st /\ Forall mul_kept (flush st) /\ (p <> [] -> flush st <> [] \/ m_ident st <> None).

Lemma mul_concrete_wf a b r :
  concrete a = true -> concrete b = true -> wf a = true -> wf b = true -> mul_concrete a b = Ok r -> wf r = true.
Proof.
  destruct a; try discriminate; destruct b; try discriminate; intros _ _ Ha Hb H; cbn [mul_concrete] in H.
  - destruct (mul_diag_diag d d0) as [p| | |] eqn:Em; cbn [bind] in H; try discriminate. injection H as <-.
    unfold mul_diag_diag in Em. destruct (Nat.eqb _ _) in Em; [|discriminate]. apply zipc_spec in Em.
    destruct Em as (Ls & _ & _). apply wf_MDiag in Ha. apply wf_MDiag. destruct d; [congruence | now destruct p].
  - destruct (mul_diag_dense d m n v) as [r0| | |] eqn:Em; cbn [bind] in H; try discriminate. injection H as <-.
    apply guarded_tab_Ok in Em. destruct Em as (_ & pv & Et & ->).
    apply tab2_length in Et. apply wf_MDense in Hb. apply wf_MDense. tauto.
  - destruct (mul_dense_diag m n v d) as [r0| | |] eqn:Em; cbn [bind] in H; try discriminate. injection H as <-.
    apply guarded_tab_Ok in Em. destruct Em as (_ & pv & Et & ->).
    apply tab2_length in Et. apply wf_MDense in Ha. apply wf_MDense. tauto.
  - destruct (mul_dense_dense m n v m0 n0 v0) as [r0| | |] eqn:Em; cbn [bind] in H; try discriminate. injection H as <-.
    apply guarded_tab_Ok in Em. destruct Em as (_ & pv & Et & ->).
    apply tab2_length in Et. apply wf_MDense in Ha, Hb. apply wf_MDense. tauto.
Qed.

Lemma concrete_kept c : concrete c = true -> wf c = true -> mul_kept c.
Proof. destruct c; try discriminate; repeat split; assumption. Qed.

Lemma mul_step_wf p st x st' :
  mul_winv p st -> mul_in x -> mul_step st x = Ok st' -> mul_winv (p ++ [x]) st'.
Proof.
  intros (Hone & Hk & Hne) (Hwx & Hmx & Hzx) Hstep.
  destruct (is_MIdent x) eqn:Hi.
  - (* an identity matrix is recorded and dropped *)
    destruct x; try discriminate. injection Hstep as <-.
    split; [exact Hone|]. split; [exact Hk|]. intros _. right. discriminate.
  - destruct (mul_step_flush st x st' Hone Hi Hstep)
      as (Hone' & _ & [E | (keep & c & r & E & Hc & Hcx & Em & Hr & E')]).
    + split; [exact Hone'|]. rewrite E. split; [|intros _; left; apply app_nonempty].
      apply Forall_app. split; [exact Hk|]. constructor; [|constructor]. repeat split; assumption.
    + rewrite E in Hk. apply Forall_app in Hk. destruct Hk as [Hk Hck]. apply Forall_inv in Hck.
      split; [exact Hone'|]. rewrite E'. split; [|intros _; left; apply app_nonempty].
      apply Forall_app. split; [exact Hk|]. constructor; [|constructor].
      apply concrete_kept; [exact Hr|]. exact (mul_concrete_wf c x r Hc Hcx (proj1 Hck) Hwx Em).
Qed.

Lemma wf_MMul_kept k l : l <> [] -> Forall mul_kept l -> wf (MMul k l) = true.
Proof.
  intros Hne H. cbn [wf]. rewrite !andb_true_iff, orb_true_iff. repeat split.
  - apply Nat.leb_le. destruct l; [congruence | cbn; lia].
  - left. apply forallb_Forall. eapply Forall_impl; [|exact H].
    intros e (A & B & C & D). cbn beta. now rewrite B, C, D.
  - apply forallb_Forall. eapply Forall_impl; [|exact H]. intros e (A & _). exact A.
Qed.

Lemma mul_rebuild_wf scalar st :
  Forall mul_kept (flush st) -> flush st <> [] \/ m_ident st <> None -> wf (mul_rebuild scalar st) = true.
Proof.
  intros Hfl Hne. unfold mul_rebuild. destruct (flush st) as [|x [|y l]].
  - destruct (m_ident st) as [n|]; [|destruct Hne; congruence]. now destruct (e_eqb scalar e1).
  - assert (Hx : mul_kept x) by (now inversion Hfl).
    destruct (m_ident st), (e_eqb scalar e1); try apply Hx; (apply wf_MMul_kept; [discriminate | assumption]).
  - destruct (m_ident st); (apply wf_MMul_kept; [discriminate | assumption]).
Qed.

Lemma mul_body_wf args res :
  Forall (fun a => match a with AMat e => wf e = true | AScal _ => True end) args ->
  mul_body args = Ok res -> wf res = true.
Proof.
  intros Hw Hm. unfold mul_body in Hm.
  destruct (expand_mul args e1 []) as [scalar expanded] eqn:Ee.
  destruct (check_matching_mul_sizes expanded) as [[]| | |] eqn:Ec; cbn [bind] in Hm; try discriminate.
  assert (Hne : expanded <> []) by (intros ->; discriminate).
  destruct (first_zero_arg args) as [z|] eqn:Ez.
  - injection Hm as <-. unfold zero_result.
    assert (Hz : wf z = true).
    { unfold first_zero_arg in Ez. apply find_some in Ez. destruct Ez as [Hin _].
      apply in_flat_map in Hin. destruct Hin as (a & Ha & Hin). rewrite Forall_forall in Hw.
      specialize (Hw a Ha). destruct a; [destruct Hin|]. destruct Hin as [<-|[]]. exact Hw. }
    destruct (map size expanded) as [|s r]; [exact Hz|].
    destruct (fst s); [|exact Hz]. destruct (snd (last r s)); [reflexivity | exact Hz].
  - destruct (foldM mul_step expanded mul_init) as [st| | |] eqn:Ef; cbn [bind] in Hm; try discriminate.
    injection Hm as <-.
    assert (Hin : Forall mul_in expanded).
    { pose proof (expand_mul_in args e1 [] (Forall_nil _)) as G. rewrite Ee in G. apply G.
      pose proof (first_zero_none args Ez) as Hz. rewrite Forall_forall in *.
      intros a Ha. specialize (Hw a Ha). specialize (Hz a Ha). destruct a; auto. }
    assert (HI : mul_winv expanded st).
    { assert (HI0 : mul_winv [] mul_init) by (split; [now left|]; split; [constructor | congruence]).
      refine (foldM_inv mul_step mul_winv expanded _ st HI0 Ef _).
      intros q x r s0 s1 El Hq Hx. apply (mul_step_wf q s0 x s1 Hq); [|exact Hx].
      rewrite Forall_forall in Hin. apply Hin. rewrite El. apply in_elt. }
    destruct HI as (_ & Hfl & Hnonempty). exact (mul_rebuild_wf scalar st Hfl (Hnonempty Hne)).
Qed.

Theorem matrix_mul_wf args res :
  Forall (fun a => match a with AMat e => wf e = true | AScal _ => True end) args ->
  matrix_mul args = Ok res -> wf res = true.
Proof.
  rewrite matrix_mul_eq. intros Hw Hm.
  destruct args as [|[q0|e0'] [|a1 args'']]; try discriminate; [eapply mul_body_wf; eauto | | eapply mul_body_wf; eauto].
  injection Hm as <-. now inversion Hw.
Qed.

Definition same_kind (r e : mexpr) : Prop :=
  is_MZero r = is_MZero e /\ is_MAdd r = is_MAdd e /\ is_MHad r = is_MHad e /\
  concrete r = concrete e /\ is_MIdent r = is_MIdent e.

Lemma trans_arg_kind a : trans_arg_ok a = true ->
  is_MZero a = false /\ is_MAdd a = false /\ is_MHad a = false /\ concrete a = false /\ is_MIdent a = false.
Proof. destruct a; cbn; intros H; try discriminate; auto. Qed.

Lemma Forall2_same_kind_flags (f : mexpr -> bool) ts t :
  (forall r e, same_kind r e -> f r = f e) ->
  Forall2 same_kind t ts -> forallb f t = forallb f ts.
Proof.
  intros Hf. induction 1 as [|r e t ts H _ IH]; [reflexivity|]. cbn [forallb]. now rewrite (Hf r e H), IH.
Qed.

Lemma Forall2_same_kind_count (f : mexpr -> bool) ts t :
  (forall r e, same_kind r e -> f r = f e) ->
  Forall2 same_kind t ts -> length (filter f t) = length (filter f ts).
Proof.
  intros Hf. induction 1 as [|r e t ts H _ IH]; [reflexivity|]. cbn [filter]. rewrite (Hf r e H).
  destruct (f e); cbn [length]; congruence.
Qed.

Lemma Forall2_length' {A B} (R : A -> B -> Prop) l1 l2 : Forall2 R l1 l2 -> length l1 = length l2.
Proof. induction 1; cbn; congruence. Qed.

(* the result of a visitor is well-formed and of the same kind as its (well-formed) argument *)
Definition wf_kind (e r : mexpr) : Prop := wf e = true -> wf r = true /\ same_kind r e.

Lemma wf_kind_list ts t :
  Forall2 wf_kind ts t -> Forall (fun e => wf e = true) ts ->
  Forall (fun e => wf e = true) t /\ Forall2 same_kind t ts.
Proof.
  intros H Hw. induction H as [|x y ts t Hxy _ IH]; [split; constructor|].
  inversion Hw; subst. destruct IH as [A B]; [assumption|].
  destruct (Hxy H1) as [C D]. split; constructor; assumption.
Qed.

Section UnaryWf.
  Variable op : mexpr -> res mexpr.
  Hypothesis op_ok : forall e r, wf e = true -> op e = Ok r -> wf r = true /\ same_kind r e.

  Lemma unary_list ts t :
    Forall (fun e => wf e = true) ts -> Forall2 (fun x y => op x = Ok y) ts t ->
    Forall (fun e => wf e = true) t /\ Forall2 same_kind t ts.
  Proof.
    intros Hw H. apply wf_kind_list; [|exact Hw]. clear Hw.
    induction H as [|x y ts t E _ IH]; constructor; [intros Hx; now apply op_ok | exact IH].
  Qed.
End UnaryWf.

Lemma wf_MAdd_map ts t :
  wf (MAdd ts) = true -> Forall (fun e => wf e = true) t -> Forall2 same_kind t ts -> wf (MAdd t) = true.
Proof.
  cbn [wf]. rewrite !andb_true_iff. intros [[[Hl Hk] Hc] _] Hw Hs. repeat split.
  - now rewrite (Forall2_length' _ _ _ Hs).
  - rewrite (Forall2_same_kind_flags (fun t0 => negb (is_MZero t0 || is_MAdd t0)) ts t); [assumption | | assumption].
    intros r e (A & B & _). now rewrite A, B.
  - unfold count_concrete in *. rewrite (Forall2_same_kind_count concrete ts t); [assumption | | assumption].
    intros r e (_ & _ & _ & D & _). exact D.
  - now apply forallb_Forall.
Qed.

Lemma wf_MHad_map fs t :
  wf (MHad fs) = true -> Forall (fun e => wf e = true) t -> Forall2 same_kind t fs -> wf (MHad t) = true.
Proof.
  cbn [wf]. rewrite !andb_true_iff. intros [[[[Hl Hk] Hc] Hi] _] Hw Hs. repeat split.
  - now rewrite (Forall2_length' _ _ _ Hs).
  - rewrite (Forall2_same_kind_flags (fun t0 => negb (is_MZero t0 || is_MHad t0)) fs t); [assumption | | assumption].
    intros r e (A & _ & C & _). now rewrite A, C.
  - unfold count_concrete in *. rewrite (Forall2_same_kind_count concrete fs t); [assumption | | assumption].
    intros r e (_ & _ & _ & D & _). exact D.
  - unfold count_ident in *. rewrite (Forall2_same_kind_count is_MIdent fs t); [assumption | | assumption].
    intros r e (_ & _ & _ & _ & E). exact E.
  - now apply forallb_Forall.
Qed.

Lemma wf_children_MAdd ts : wf (MAdd ts) = true -> Forall (fun e => wf e = true) ts.
Proof. cbn [wf]. rewrite !andb_true_iff. intros [_ H]. now apply forallb_Forall. Qed.
Lemma wf_children_MHad fs : wf (MHad fs) = true -> Forall (fun e => wf e = true) fs.
Proof. cbn [wf]. rewrite !andb_true_iff. intros [_ H]. now apply forallb_Forall. Qed.

(* a visitor that maps itself over the operands of a MatrixAdd / HadamardProduct and on every other
   expression returns a well-formed one of the same kind *)
Lemma mapped_wf (op : mexpr -> res mexpr) :
  (forall ts, op (MAdd ts) = do t <- mapM op ts; Ok (MAdd t)) ->
  (forall fs, op (MHad fs) = do t <- mapM op fs; Ok (MHad t)) ->
  (forall e r, is_MAdd e = false -> is_MHad e = false ->
               wf e = true -> op e = Ok r -> wf r = true /\ same_kind r e) ->
  forall e r, wf e = true -> op e = Ok r -> wf r = true /\ same_kind r e.
Proof.
  intros HA HH Hleaf e r Hw Ht. revert Hw. apply (mapped_ind op wf_kind HA HH); [| | |exact Ht].
  - intros ts t H Hw. destruct (wf_kind_list ts t H (wf_children_MAdd ts Hw)) as [A B].
    split; [eapply wf_MAdd_map; eauto | repeat split].
  - intros fs t H Hw. destruct (wf_kind_list fs t H (wf_children_MHad fs Hw)) as [A B].
    split; [eapply wf_MHad_map; eauto | repeat split].
  - intros e0 r0 Ha Hh E Hw. now apply Hleaf.
Qed.

Theorem transpose_wf e : forall r, wf e = true -> transpose e = Ok r -> wf r = true /\ same_kind r e.
Proof.
  apply (mapped_wf transpose); try reflexivity. clear e. intros e r Ha Hh Hw Ht.
  destruct e; try discriminate; cbn [transpose] in Ht;
    try (injection Ht as <-; split; [first [assumption | reflexivity | exact Hw] | repeat split]; fail).
  - destruct (tab2 n m _) as [t| | |] eqn:E; cbn [bind] in Ht; try discriminate.
    injection Ht as <-. apply tab2_length in E. apply wf_MDense in Hw. destruct Hw as (A & B & C).
    split; [apply wf_MDense; auto | repeat split].
  - injection Ht as <-. cbn [wf] in Hw. apply andb_true_iff in Hw. destruct Hw as [Hk Hw].
    split; [exact Hw|]. destruct (trans_arg_kind e Hk) as (A & B & C & D & E).
    unfold same_kind. cbn. now rewrite A, B, C, D, E.
Qed.

Theorem conjugate_wf e : forall r, wf e = true -> conjugate_matrix e = Ok r -> wf r = true /\ same_kind r e.
Proof.
  apply (mapped_wf conjugate_matrix); try reflexivity. clear e. intros e r Ha Hh Hw Ht.
  destruct e; try discriminate; cbn [conjugate_matrix] in Ht;
    try (injection Ht as <-; split; [first [assumption | reflexivity | exact Hw] | repeat split]; fail).
  - injection Ht as <-. split; [|repeat split]. apply wf_MDiag in Hw. apply wf_MDiag. now destruct d.
  - injection Ht as <-. split; [|repeat split]. apply wf_MDense in Hw. apply wf_MDense. now rewrite map_length.
  - injection Ht as <-. cbn [wf] in Hw. apply andb_true_iff in Hw. destruct Hw as [Hk Hw].
    split; [exact Hw|]. destruct (trans_arg_kind e Hk) as (A & B & C & D & E).
    unfold same_kind. cbn. now rewrite A, B, C, D, E.
Qed.

Lemma diagonal_matrix_wf d r : diagonal_matrix d = Ok r -> wf r = true.
Proof.
  unfold diagonal_matrix. destruct (is_zero_vec d) eqn:Ez; [intros H; inversion H; reflexivity|].
  destruct (is_identity_vec d); intros H; inversion H; subst; [reflexivity|].
  apply wf_MDiag. intros ->. discriminate.
Qed.

Lemma immutable_dense_matrix_wf m n v r : immutable_dense_matrix m n v = Ok r -> wf r = true.
Proof.
  unfold immutable_dense_matrix.
  destruct ((1 <=? m) && (1 <=? n) && (length v =? m * n)) eqn:Ep; cbn [negb]; [|discriminate].
  rewrite !andb_true_iff, !Nat.leb_le, Nat.eqb_eq in Ep. destruct Ep as [[Hm Hn] Lv].
  destruct (is_zero_vec v); [intros H; inversion H; reflexivity|].
  destruct ((m =? n) && is_identity_dense m v); [intros H; inversion H; reflexivity|].
  destruct ((m =? n) && is_diagonal_dense m v); intros H; inversion H; subst.
  - apply wf_MDiag. unfold extract_diagonal. destruct m; [lia|]. rewrite seq_S. intros E.
    apply (f_equal (@length _)) in E. rewrite map_length, app_length in E. cbn in E. lia.
  - apply wf_MDense. auto.
Qed.

Definition stack_wf (st : list marg) : Prop :=
  Forall (fun a => match a with AMat e => wf e = true | AScal _ => True end) st.

Lemma popn_wf {n} st st' args : stack_wf st -> popn n st = Some (st', args) -> stack_wf st' /\ stack_wf args.
Proof.
  unfold popn, stack_wf. intros H. destruct (n <=? length st); [|discriminate]. intros E; inversion E; subst.
  rewrite <- (firstn_skipn (length st - n) st) in H. apply Forall_app in H. exact H.
Qed.

Lemma mats_of_wf args l : stack_wf args -> mats_of args = Some l -> Forall (fun e => wf e = true) l.
Proof.
  unfold mats_of, stack_wf. revert l. induction args as [|a args IH]; intros l H E; cbn [fold_right] in E.
  - inversion E; constructor.
  - inversion H; subst. destruct a as [q|e]; [discriminate|].
    destruct (fold_right _ (Some []) args) as [l'|] eqn:E'; [|discriminate]. inversion E; subst.
    constructor; [assumption | now apply IH].
Qed.

Lemma push_mat_wf st r st' : stack_wf st -> (forall e, r = Ok e -> wf e = true) -> push_mat st r = Ok st' -> stack_wf st'.
Proof.
  unfold push_mat, stack_wf. intros H Hr E. destruct r as [e| | |]; cbn [bind] in E; try discriminate.
  inversion E; subst. apply Forall_app. split; [assumption|]. constructor; [now apply Hr | constructor].
Qed.

(* an operation pops its operands and pushes its result *)
Lemma pop_push_wf {n} st st0 args r st' :
  stack_wf st -> popn n st = Some (st0, args) ->
  (stack_wf args -> forall e, r = Ok e -> wf e = true) ->
  push_mat st0 r = Ok st' -> stack_wf st'.
Proof.
  intros H Ep Hr E. destruct (popn_wf st st0 args H Ep) as [A B]. exact (push_mat_wf st0 r st' A (Hr B) E).
Qed.

Lemma step_wf st t st' : stack_wf st -> step st t = Ok st' -> stack_wf st'.
Proof.
  intros H E. unfold step in E. destruct t.
  - refine (push_mat_wf st _ st' H _ E). intros e He. inversion He; reflexivity.
  - refine (push_mat_wf st _ st' H _ E). intros e He. inversion He; reflexivity.
  - refine (push_mat_wf st _ st' H _ E). intros e He. inversion He; reflexivity.
  - refine (push_mat_wf st _ st' H _ E). intros e He. eapply diagonal_matrix_wf; exact He.
  - refine (push_mat_wf st _ st' H _ E). intros e He. eapply immutable_dense_matrix_wf; exact He.
  - inversion E; subst. apply Forall_app. split; [assumption | constructor; [exact I | constructor]].
  - destruct (popn n st) as [[st0 args]|] eqn:Ep; [|discriminate].
    destruct (mats_of args) as [l|] eqn:Em; [|discriminate].
    refine (pop_push_wf st st0 args _ st' H Ep _ E). intros B e He.
    eapply matrix_add_wf; [|exact He]. eapply mats_of_wf; eauto.
  - destruct (popn n st) as [[st0 args]|] eqn:Ep; [|discriminate].
    refine (pop_push_wf st st0 args _ st' H Ep _ E). intros B e He. exact (matrix_mul_wf args e B He).
  - destruct (popn n st) as [[st0 args]|] eqn:Ep; [|discriminate].
    destruct (mats_of args) as [l|] eqn:Em; [|discriminate].
    refine (pop_push_wf st st0 args _ st' H Ep _ E). intros B e He.
    eapply hadamard_product_wf; [|exact He]. eapply mats_of_wf; eauto.
  - destruct (popn 1 st) as [[st0 args]|] eqn:Ep; [|discriminate].
    destruct args as [|[q|e] [|]]; try discriminate.
    refine (pop_push_wf st st0 _ _ st' H Ep _ E). intros B r He. inversion B; subst.
    eapply transpose_wf; eauto.
  - destruct (popn 1 st) as [[st0 args]|] eqn:Ep; [|discriminate].
    destruct args as [|[q|e] [|]]; try discriminate.
    refine (pop_push_wf st st0 _ _ st' H Ep _ E). intros B r He. inversion B; subst.
    eapply conjugate_wf; eauto.
Qed.

(* every expression built by a program of API calls is well-formed *)
Theorem run_wf prog e : run prog = Ok e -> wf e = true.
Proof.
  unfold run. destruct (foldM step prog []) as [st| | |] eqn:E; cbn [bind]; try discriminate.
  assert (H : stack_wf st).
  { revert E. assert (G : forall p st0 st1, stack_wf st0 -> foldM step p st0 = Ok st1 -> stack_wf st1).
    { induction p as [|t p IH]; intros st0 st1 H0 H1; cbn [foldM] in H1; [inversion H1; subst; assumption|].
      destruct (step st0 t) as [st2| | |] eqn:Es; cbn [bind] in H1; try discriminate.
      eapply IH; [|eassumption]. eapply step_wf; eauto. }
    intros E. eapply G; [|exact E]. constructor. }
  destruct st as [|[q|x] [|]]; try discriminate. intros He; inversion He; subst. now inversion H.
Qed.
