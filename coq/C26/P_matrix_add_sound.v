(* C26 obligation: whenever matrix_add returns an expression, that expression denotes the sum of
   the operands' dense values -- for every environment (values of dimension symbols and of matrix
   symbols) under which the sum is defined, for operand lists of any length and any nesting. *)
From SE Require Import C26.MatSpec C26.MatAddProofs.
Theorem C26_matrix_add_sound :
  forall (rho : env) (terms : list mexpr) (res : mexpr),
    matrix_add terms = Ok res ->
    forall V, denote rho (MAdd terms) = Some V -> exists V', denote rho res = Some V' /\ meq V' V.
Proof. exact matrix_add_sound. Qed.
Print Assumptions C26_matrix_add_sound.
