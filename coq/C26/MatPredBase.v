(* C26 -- the loops over entries and the predicates that only look at leaves
   (is_zero.cpp, is_real.cpp, is_square.cpp). *)
From SE Require Import C26.MatSpec C26.MatLemmas.
From Coq Require Import Lia Ring.
Local Open Scope nat_scope.
Local Open Scope res_scope.

Lemma e1_neq_e0 : e1 <> e0.
Proof.
  intros H. apply (f_equal fst) in H. cbn in H. apply (f_equal this) in H.
  vm_compute in H. discriminate.
Qed.

Lemma and_tri_TT_r c : and_tri c TT = c.
Proof. destruct c; reflexivity. Qed.
Lemma and_tri_TT_l c : and_tri TT c = c.
Proof. destruct c; reflexivity. Qed.

Section EntryLoops.
  Variable p : ent -> tri.
  Hypothesis p_def : forall x, p x = TT \/ p x = TF.

  Lemma dense_all_spec l :
    (dense_all p l TT = TT /\ Forall (fun x => p x = TT) l) \/
    (dense_all p l TT = TF /\ Exists (fun x => p x = TF) l).
  Proof.
    induction l as [|x l IH]; cbn [dense_all].
    - left. split; [reflexivity | constructor].
    - rewrite and_tri_TT_l. destruct (p_def x) as [E|E]; rewrite E; cbn [is_false].
      + destruct IH as [[A B]|[A B]]; [left | right]; split; auto.
      + right. split; [reflexivity | now left].
  Qed.
  (* without indeterminate answers the two loops agree *)
  Lemma diag_all_dense_all l : diag_all p l TT = dense_all p l TT.
  Proof.
    induction l as [|x l IH]; cbn [diag_all dense_all]; [reflexivity|]. rewrite and_tri_TT_l.
    destruct (p_def x) as [E|E]; rewrite E; cbn [is_false andwk_tri]; [exact IH | reflexivity].
  Qed.

  Lemma diag_all_spec l :
    (diag_all p l TT = TT /\ Forall (fun x => p x = TT) l) \/
    (diag_all p l TT = TF /\ Exists (fun x => p x = TF) l).
  Proof. rewrite diag_all_dense_all. apply dense_all_spec. Qed.
End EntryLoops.

Lemma Exists_nth {A} (P : A -> Prop) l d : Exists P l -> exists k, k < length l /\ P (nth k l d).
Proof.
  induction 1 as [x l H|x l _ [k [Hk HP]]].
  - exists 0. cbn. split; [lia | assumption].
  - exists (S k). cbn. split; [lia | assumption].
Qed.

Lemma Forall_nth_e0 (P : ent -> Prop) l k : Forall P l -> k < length l -> P (nth k l e0).
Proof. intros H Hk. rewrite Forall_forall in H. apply H. now apply nth_In. Qed.

Lemma trl_cases a : trl a = TT \/ trl a = TF.
Proof. unfold trl, tri_of_bool. destruct (e_is_real a); auto. Qed.
Lemma trl_TT a : trl a = TT <-> snd a = qc0.
Proof. unfold trl, tri_of_bool. rewrite <- e_is_real_iff. destruct (e_is_real a); split; congruence. Qed.
Lemma trl_TF a : trl a = TF <-> snd a <> qc0.
Proof. unfold trl, tri_of_bool. rewrite <- e_is_real_false. destruct (e_is_real a); split; congruence. Qed.

(* index arithmetic of a row-major vector *)
Lemma flat_index n k : 0 < n -> k = (k / n) * n + k mod n /\ k mod n < n.
Proof.
  intros Hn. split.
  - rewrite Nat.mul_comm. apply Nat.div_mod. lia.
  - apply Nat.mod_upper_bound. lia.
Qed.

Lemma flat_index_row m n k : k < m * n -> k / n < m.
Proof. intros H. apply Nat.div_lt_upper_bound; [destruct n; lia | lia]. Qed.

(* Q holds of every entry *)
Definition P_all (Q : ent -> Prop) (V : mat) := forall i j, i < mr V -> j < mc V -> Q (mf V i j).

Section LeafAll.
  Variable p : ent -> tri.
  Variable Q : ent -> Prop.
  Hypothesis p_def : forall x, p x = TT \/ p x = TF.
  Hypothesis p_TT : forall x, p x = TT <-> Q x.
  Hypothesis p_TF : forall x, p x = TF <-> ~ Q x.
  Hypothesis Q0 : Q e0.

  Lemma diag_all_sound rho d :
    sound_answer (diag_all p d TT) (P_all Q) rho (MDiag d).
  Proof.
    apply sound_answer_intro. intros s Hs V. subst V.
    rewrite shp_MDiag in Hs. inversion Hs; subst s. cbn [fst snd].
    destruct (diag_all_spec p p_def d) as [[E H]|[E H]]; rewrite E.
    - split; [|discriminate]. intros _ i j Hi Hj. cbn [mf]. rewrite val_MDiag.
      destruct (i =? j); [|assumption]. apply p_TT. now apply (Forall_nth_e0 (fun x => p x = TT)).
    - split; [discriminate|]. intros _ HP. apply (Exists_nth _ _ e0) in H. destruct H as (k & Hk & Hp).
      apply p_TF in Hp. apply Hp. specialize (HP k k Hk Hk). cbn [mf] in HP.
      rewrite val_MDiag, Nat.eqb_refl in HP. exact HP.
  Qed.

  Lemma dense_all_sound rho m n v :
    sound_answer (dense_all p v TT) (P_all Q) rho (MDense m n v).
  Proof.
    apply sound_answer_intro. intros s Hs V. subst V.
    apply shp_MDense_Some in Hs. destruct Hs as [Lv ->]. cbn [fst snd].
    destruct (dense_all_spec p p_def v) as [[E H]|[E H]]; rewrite E.
    - split; [|discriminate]. intros _ i j Hi Hj. cbn [mf]. rewrite val_MDense.
      cbn [mr mc] in Hi, Hj. apply p_TT. apply (Forall_nth_e0 (fun x => p x = TT)); [assumption | rewrite Lv; apply idx_lt; lia].
    - split; [discriminate|]. intros _ HP. apply (Exists_nth _ _ e0) in H. destruct H as (k & Hk & Hp).
      apply p_TF in Hp. apply Hp. rewrite Lv in Hk.
      assert (Hn : 0 < n) by (destruct n; [rewrite Nat.mul_0_r in Hk; lia | lia]).
      destruct (flat_index n k Hn) as [Ek Hmod].
      specialize (HP (k / n) (k mod n) (flat_index_row m n k Hk) Hmod). cbn [mf] in HP.
      rewrite val_MDense, <- Ek in HP. exact HP.
  Qed.
End LeafAll.

Lemma P_zero_all V : P_zero V <-> P_all (fun x => x = e0) V.
Proof. reflexivity. Qed.

Theorem is_zero_sound rho e :
  empty_ident rho e = false -> sound_answer (is_zero e) P_zero rho e.
Proof.
  intros Hg. destruct e; cbn [is_zero]; try apply sound_answer_TI.
  - (* identity: the entry (0, 0) is 1 *)
    apply sound_answer_intro. intros s Hs V. split; [discriminate|]. intros _ HP.
    rewrite shp_MIdent in Hs. injection Hs as <-.
    cbn [empty_ident] in Hg. apply Nat.eqb_neq in Hg.
    apply e1_neq_e0. apply (HP 0 0); cbn; lia.
  - apply sound_answer_intro. intros s Hs V. split; [|discriminate]. intros _ i j _ _. reflexivity.
  - apply (diag_all_sound tz (fun x => x = e0) tz_cases tz_TT tz_TF eq_refl).
  - apply (dense_all_sound tz (fun x => x = e0) tz_cases tz_TT tz_TF).
Qed.

Lemma P_real_all V : P_real V <-> P_all (fun x => snd x = qc0) V.
Proof. reflexivity. Qed.

Theorem is_real_sound rho e : sound_answer (is_real e) P_real rho e.
Proof.
  destruct e; cbn [is_real]; try apply sound_answer_TI.
  - apply sound_answer_intro. intros s Hs V. split; [|discriminate]. intros _ i j _ _. cbn [mf V].
    rewrite val_MIdent. unfold delta. destruct (i =? j); reflexivity.
  - apply sound_answer_intro. intros s Hs V. split; [|discriminate]. intros _ i j _ _. reflexivity.
  - apply (diag_all_sound trl (fun x => snd x = qc0) trl_cases trl_TT trl_TF eq_refl).
  - apply (dense_all_sound trl (fun x => snd x = qc0) trl_cases trl_TT trl_TF).
Qed.

Lemma square_vec_In p l t : square_vec p l = t -> t <> TI -> exists x, In x l /\ p x = t.
Proof.
  induction l as [|x l IH]; cbn [square_vec]; intros H Ht.
  - congruence.
  - destruct l as [|y l'].
    + exists x. split; [now left | assumption].
    + destruct (is_indet (p x)) eqn:E.
      * destruct (IH H Ht) as (z & Hin & Hz). exists z. split; [now right | assumption].
      * exists x. split; [now left | assumption].
Qed.

Lemma square_vec_sound rho s l :
  Forall (fun e => sound_answer (is_square e) P_square rho e) l -> Forall (fun e => shp rho e = Some s) l ->
  (square_vec is_square l = TT -> fst s = snd s) /\ (square_vec is_square l = TF -> fst s <> snd s).
Proof.
  intros H Hall. rewrite Forall_forall in H, Hall.
  assert (G : forall t, square_vec is_square l = t -> t <> TI -> (t = TT -> fst s = snd s) /\ (t = TF -> fst s <> snd s)).
  { intros t Ht Hn. destruct (square_vec_In _ _ _ Ht Hn) as (x & Hin & <-).
    apply (H x Hin (mkmat (fst s) (snd s) (val rho x))). apply denote_Some. exists s. auto. }
  split; intros E; now apply (G _ E).
Qed.

Theorem is_square_sound rho e : sound_answer (is_square e) P_square rho e.
Proof.
  induction e as [n|m n|x|d|m n v|ts H|k fs H|fs H|a IHa|a IHa] using mexpr_ind';
    cbn [is_square]; try apply sound_answer_TI; apply sound_answer_intro; intros s Hs V; unfold P_square; cbn [mr mc V].
  - rewrite shp_MIdent in Hs. injection Hs as <-. split; [reflexivity | discriminate].
  - rewrite shp_MZero in Hs. injection Hs as <-. split; [apply (dim_diff_zero_TT rho) | apply (dim_diff_zero_TF rho)].
  - rewrite shp_MDiag in Hs. injection Hs as <-. split; [reflexivity | discriminate].
  - apply shp_MDense_Some in Hs. destruct Hs as [_ ->]. unfold tri_of_bool. cbn [fst snd].
    destruct (Nat.eqb_spec m n); split; congruence.
  - rewrite shp_MAdd in Hs. apply shape_all_Forall in Hs. exact (square_vec_sound rho s ts H (proj2 Hs)).
  - rewrite shp_MHad in Hs. apply shape_all_Forall in Hs. exact (square_vec_sound rho s fs H (proj2 Hs)).
Qed.
