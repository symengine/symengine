(* C26 -- hadamard_product (hadamard_product.cpp) as an instance of the folding loop of MatFold.v, with
   emul / e1 / HadamardProduct: it preserves the value of the entrywise product and well-formedness, and
   throws only from the size check.  What is particular to it: a ZeroMatrix operand ends the loop and is the
   result; of several IdentityMatrix operands only the first is kept (delta is idempotent). *)
From SE Require Import C26.MatSpec C26.MatLemmas C26.MatFold.
From Coq Require Import Lia Ring.
Local Open Scope nat_scope.
Local Open Scope res_scope.

Lemma emul_assoc a b c : emul a (emul b c) = emul (emul a b) c. Proof. ring. Qed.
Lemma emul_comm a b : emul a b = emul b a. Proof. ring. Qed.

Definition flat_had (t : mexpr) : list mexpr := match t with MHad fs => fs | _ => [t] end.

Lemma flat_had_spec t :
  (is_MHad t = false /\ flat_had t = [t]) \/ (exists ts, t = MHad ts /\ flat_had t = ts).
Proof. destruct t; eauto. Qed.

Lemma is_MHad_concrete c : concrete c = true -> is_MHad c = false.
Proof. now destruct c. Qed.

Lemma wf_MHad_kids ts :
  wf (MHad ts) = true -> 2 <= length ts /\ Forall (fun x => wf x = true /\ is_MHad x = false) ts.
Proof.
  cbn [wf]. rewrite !andb_true_iff, Nat.leb_le, !forallb_forall, Forall_forall.
  intros [[[[Hl Hk] _] _] Hw]. split; [exact Hl|]. intros x Hx. split; [auto|].
  specialize (Hk x Hx). apply negb_true_iff, orb_false_iff in Hk. tauto.
Qed.

Definition h_acc (st : had_state) : acc :=
  {| c_keep := h_keep st; c_diag := h_diag st; c_dense := h_dense st |}.
Definition h_of (a : acc) (b : bool) : had_state :=
  {| h_keep := c_keep a; h_diag := c_diag a; h_dense := c_dense a; h_ident := b |}.
Definition h_init : had_state := {| h_keep := []; h_diag := None; h_dense := None; h_ident := false |}.

Lemma had_step_eq st t :
  had_step st t = match t with
                  | MZero _ _ => Ok (inl t)
                  | MIdent _ => if h_ident st then Ok (inr st)
                                else do a <- gstep emul (h_acc st) t; Ok (inr (h_of a true))
                  | _ => do a <- gstep emul (h_acc st) t; Ok (inr (h_of a (h_ident st)))
                  end.
Proof.
  unfold had_step, gstep. destruct t; try reflexivity; cbn [h_acc c_diag c_dense].
  - destruct (h_diag st); [destruct (zipc _ _ _ _)|]; reflexivity.
  - destruct (h_dense st) as [[[? ?] ?]|]; [destruct (zipc _ _ _ _)|]; reflexivity.
Qed.

(* a step leaves the loop exactly at a ZeroMatrix; otherwise it skips a repeated IdentityMatrix or is a
   step of the generic loop, noting the first IdentityMatrix *)
Lemma had_step_inl st t z : had_step st t = Ok (inl z) -> z = t /\ is_MZero t = true.
Proof.
  rewrite had_step_eq. destruct t; try (destruct (gstep _ _ _); discriminate);
    [destruct (h_ident st); [|destruct (gstep _ _ _)]; discriminate|].
  intros [= <-]. auto.
Qed.

Lemma had_step_inr st t st' :
  had_step st t = Ok (inr st') ->
  (st' = st /\ is_MIdent t = true /\ h_ident st = true) \/
  (exists a, gstep emul (h_acc st) t = Ok a /\ st' = h_of a (h_ident st || is_MIdent t) /\
             (is_MIdent t = true -> h_ident st = false)).
Proof.
  rewrite had_step_eq. intros H.
  destruct t; try discriminate;
    try (destruct (gstep emul (h_acc st) _) as [a| | |] eqn:Eg; cbn [bind] in H; try discriminate;
         injection H as <-; right; exists a; rewrite orb_false_r; repeat split; discriminate).
  destruct (h_ident st) eqn:Ei; [injection H as <-; now left|].
  destruct (gstep emul (h_acc st) _) as [a| | |] eqn:Eg; cbn [bind] in H; try discriminate.
  injection H as <-. right. exists a. auto.
Qed.

Definition merge_had (d : list ent) (m n : nat) (v : list ent) : res mexpr :=
  do p <- had_dense_diag m n v d; Ok (MDiag p).

Lemma hadamard_product_eq fs :
  hadamard_product fs =
  match fs with
  | [] => ErrExn EXN_DOMAIN
  | [t] => Ok t
  | _ =>
      do _ <- check_matching_sizes (flatten_had fs);
      do s <- had_loop (flatten_had fs) h_init;
      match s with
      | inl z => Ok z
      | inr st => do keep <- gfinish merge_had (h_acc st); Ok (collapse MHad keep)
      end
  end.
Proof.
  assert (R : forall keep, match keep with [x] => Ok x | _ => Ok (MHad keep) end = Ok (collapse MHad keep))
    by (intros [|x [|y l]]; reflexivity).
  destruct fs as [|t0 [|t1 r]]; try reflexivity. unfold hadamard_product.
  destruct (check_matching_sizes _); try reflexivity. cbn [bind]. fold h_init.
  destruct (had_loop _ _) as [[z|st]| | |]; try reflexivity. cbn [bind].
  unfold gfinish, merge_had. cbn [h_acc c_keep c_diag c_dense].
  destruct (h_diag st), (h_dense st) as [[[m n] v]|]; cbn [bind fst snd]; try apply R.
  destruct (had_dense_diag _ _ _ _); cbn [bind fst snd]; [apply R | reflexivity ..].
Qed.

(* a loop invariant for had_loop, over the prefix processed so far; the loop is left at a ZeroMatrix *)
Lemma had_loop_inv (I : list mexpr -> had_state -> Prop) l st out :
  I [] st -> had_loop l st = Ok out ->
  (forall q x r s0 s1, l = q ++ x :: r -> I q s0 -> had_step s0 x = Ok (inr s1) -> I (q ++ [x]) s1) ->
  match out with inr st' => I l st' | inl z => In z l /\ is_MZero z = true end.
Proof.
  intros H0 Hf Hstep.
  enough (G : forall r q s0, l = q ++ r -> I q s0 -> had_loop r s0 = Ok out ->
                match out with inr st' => I l st' | inl z => In z l /\ is_MZero z = true end)
    by (apply (G l [] st); auto).
  induction r as [|x r IH]; intros q s0 El Hq Hr; cbn [had_loop] in Hr.
  - injection Hr as <-. now rewrite El, app_nil_r.
  - destruct (had_step s0 x) as [[z|s1]| | |] eqn:E; cbn [bind] in Hr; try discriminate.
    + injection Hr as <-. apply had_step_inl in E. destruct E as [-> Hz].
      split; [rewrite El; apply in_elt | exact Hz].
    + apply (IH (q ++ [x]) s1); [now rewrite <- app_assoc | eapply Hstep; eauto | exact Hr].
Qed.

Lemma had_loop_nonempty l st :
  had_loop l h_init = Ok (inr st) -> l <> [] -> acc_list (h_acc st) <> [].
Proof.
  intros Hf Hne.
  refine (had_loop_inv (fun q st => h_ident st = true \/ q <> [] -> acc_list (h_acc st) <> []) l _ _ _ Hf _ (or_intror Hne)).
  { intros [H|H]; [discriminate | congruence]. }
  intros q x r s0 s1 _ Hq Hx _.
  destruct (had_step_inr _ _ _ Hx) as [(-> & _ & Ei)|(a & Eg & -> & _)];
    [apply Hq; now left | exact (gstep_nonempty _ _ _ _ Eg)].
Qed.

Lemma had_dense_diag_val rho n v d r i j :
  had_dense_diag n n v d = Ok r -> length d = n -> length v = n * n -> i < n -> j < n ->
  val rho (MDiag r) i j = emul (val rho (MDiag d) i j) (val rho (MDense n n v) i j).
Proof.
  intros H Ld Lv Hi Hj. unfold had_dense_diag in H.
  pose proof (mapM_nth _ _ _ 0 e0 i H) as Hn. rewrite seq_length in Hn. specialize (Hn Hi).
  rewrite seq_nth in Hn by assumption. rewrite Nat.add_0_l in Hn.
  unfold dget in Hn. rewrite rd_lt in Hn by (rewrite Lv; now apply idx_lt). cbn [bind] in Hn.
  rewrite rd_lt in Hn by lia. injection Hn as Hx.
  rewrite !val_MDiag, val_MDense. destruct (Nat.eqb_spec i j) as [<-|]; [rewrite <- Hx|]; ring.
Qed.

Lemma merge_had_val rho d n v c :
  merge_had d n n v = Ok c -> length d = n -> length v = n * n ->
  shp rho c = Some (n, n) /\
  forall i j, i < n -> j < n -> val rho c i j = emul (val rho (MDiag d) i j) (val rho (MDense n n v) i j).
Proof.
  unfold merge_had. intros H Ld Lv.
  destruct (had_dense_diag n n v d) as [r| | |] eqn:E; cbn [bind] in H; try discriminate. injection H as <-. split.
  - unfold had_dense_diag in E. apply mapM_length in E. now rewrite shp_MDiag, E, seq_length.
  - intros i j. now apply had_dense_diag_val.
Qed.

Lemma delta_idem i j : emul (delta i j) (delta i j) = delta i j.
Proof. unfold delta. destruct (i =? j); ring. Qed.

Lemma eprod_absorb_delta {A} (f : A -> ent) (l : list A) x i j :
  In x l -> f x = delta i j -> emul (eprod (map f l)) (delta i j) = eprod (map f l).
Proof.
  induction l as [|y l IH]; cbn [In map]; [tauto|].
  rewrite eprod_cons. intros [->|Hin] Hx.
  - rewrite Hx. rewrite <- (delta_idem i j) at 3. ring.
  - rewrite <- (IH Hin Hx) at 2. ring.
Qed.

Section HadValue.
  Variables (rho : env) (s : shape).

  Definition had_inv (p : list mexpr) (st : had_state) : Prop :=
    acc_inv emul e1 rho s p (h_acc st) /\ (h_ident st = true -> exists n, In (MIdent n) (h_keep st)).

  Lemma had_step_inv p st t st' :
    had_inv p st -> shp rho t = Some s -> had_step st t = Ok (inr st') -> had_inv (p ++ [t]) st'.
  Proof.
    intros [HI Hid] Ht H.
    destruct (had_step_inr _ _ _ H) as [(-> & Hi & Ei)|(a & Eg & -> & _)].
    - (* a further IdentityMatrix: the first is among the kept operands *)
      split; [|exact Hid]. destruct (Hid Ei) as [n0 Hn0]. destruct t; try discriminate.
      apply (acc_inv_absorb emul e1 emul_assoc emul_comm emul_1_l); [exact HI|]. intros i j.
      apply (eprod_absorb_delta _ _ (MIdent n0)); [|reflexivity]. apply in_or_app. now left.
    - split; [exact (gstep_inv emul e1 emul_assoc emul_comm emul_1_l (emul_0_l e0) rho s p _ t a HI Ht Eg)|].
      cbn [h_of h_ident h_keep]. rewrite (gstep_keep _ _ _ _ Eg). intros E. apply orb_true_iff in E.
      destruct E as [E|E].
      + destruct (Hid E) as [n0 Hn0]. exists n0. destruct (concrete t); auto using in_or_app.
      + destruct t; try discriminate. exists n. apply in_or_app. right. now left.
  Qed.

  Theorem hadamard_value fs res :
    hadamard_product fs = Ok res -> shp rho (MHad fs) = Some s ->
    shp rho res = Some s /\
    forall i j, i < fst s -> j < snd s -> val rho res i j = val rho (MHad fs) i j.
  Proof.
    rewrite hadamard_product_eq, shp_MHad. intros Hm Hs.
    pose proof (collapse_value emul e1 emul_comm emul_1_l MHad rho (shp_MHad rho) (val_MHad rho) s) as Hcol.
    destruct fs as [|t0 [|t1 rest]]; [discriminate | |].
    { injection Hm as <-. apply shape_all_Forall in Hs. destruct (Hcol [t0]) as [A B]; try tauto.
      split; [exact A|]. intros i j _ _. rewrite val_MHad. apply B. }
    set (terms := t0 :: t1 :: rest) in *.
    assert (Hflat : forall i j, eprod (map (fun e => val rho e i j) (flatten_had terms)) = val rho (MHad terms) i j).
    { intros i j. rewrite val_MHad.
      exact (flatten_val emul e1 emul_assoc emul_comm emul_1_l MHad is_MHad flat_had flat_had_spec rho (val_MHad rho) terms i j). }
    apply (flatten_shape MHad is_MHad flat_had flat_had_spec rho (shp_MHad rho)) in Hs.
    apply shape_all_Forall in Hs. destruct Hs as [Hne Hall]. rewrite Forall_forall in Hall.
    destruct (check_matching_sizes _); cbn [bind] in Hm; try discriminate.
    destruct (had_loop _ _) as [out| | |] eqn:Ef; cbn [bind] in Hm; try discriminate.
    assert (H0 : had_inv [] h_init) by (split; [apply acc_inv_nil | discriminate]).
    assert (Hout := had_loop_inv had_inv _ _ _ H0 Ef). lapply Hout; clear Hout; [intros Hout|].
    2:{ intros q x r s0 s1 El Hq Hx. apply (had_step_inv q s0 x s1 Hq); [|exact Hx].
        apply Hall. change (In x (flatten_had terms)). rewrite El. apply in_elt. }
    destruct out as [z|st].
    - (* a ZeroMatrix operand *)
      injection Hm as <-. destruct Hout as [Hin Hz].
      split; [now apply Hall|]. intros i j _ _. rewrite <- Hflat.
      destruct z; try discriminate. rewrite val_MZero. symmetry. apply eprod_zero.
      apply in_map_iff. exists (MZero m n). split; [reflexivity | assumption].
    - destruct (gfinish merge_had (h_acc st)) as [keep| | |] eqn:Eg; cbn [bind] in Hm; try discriminate.
      injection Hm as <-. destruct Hout as [HI _].
      destruct (gfinish_value emul e1 emul_assoc emul_comm emul_1_l merge_had rho (merge_had_val rho) s _ _ _ HI Eg)
        as [Hk Hkv].
      destruct (Hcol keep) as [A B]; [|exact Hk|].
      { apply (gfinish_nonempty _ _ _ Eg). now apply (had_loop_nonempty _ _ Ef). }
      split; [exact A|]. intros i j Hi Hj. rewrite <- Hflat, B. now apply Hkv.
  Qed.
End HadValue.

Lemma merge_had_wf d m n v c :
  merge_had d m n v = Ok c -> d <> [] -> 1 <= m -> 1 <= n -> length v = m * n ->
  wf c = true /\ concrete c = true.
Proof.
  unfold merge_had, had_dense_diag. intros H _ Hm _ _.
  destruct (mapM _ _) as [r| | |] eqn:E; cbn [bind] in H; try discriminate. injection H as <-.
  apply mapM_length in E. rewrite seq_length in E. split; [|reflexivity]. cbn [wf]. rewrite E.
  apply negb_true_iff, Nat.eqb_neq. lia.
Qed.

Lemma count_ident_app l1 l2 : count_ident (l1 ++ l2) = count_ident l1 + count_ident l2.
Proof. unfold count_ident. now rewrite filter_app, app_length. Qed.

Definition had_winv (p : list mexpr) (st : had_state) : Prop :=
  acc_wf is_MHad p (h_acc st) /\ count_ident (h_keep st) = if h_ident st then 1 else 0.

Theorem hadamard_product_wf fs res :
  Forall (fun e => wf e = true) fs -> hadamard_product fs = Ok res -> wf res = true.
Proof.
  rewrite hadamard_product_eq. intros Hw Hm.
  destruct fs as [|t0 [|t1 rest]]; [discriminate | injection Hm as <-; now inversion Hw |].
  set (terms := t0 :: t1 :: rest) in *.
  pose proof (flatten_wf MHad is_MHad flat_had flat_had_spec wf_MHad_kids terms Hw) as Hall.
  pose proof (flatten_wf_nonempty MHad is_MHad flat_had flat_had_spec wf_MHad_kids terms ltac:(discriminate) Hw) as Hne.
  rewrite Forall_forall in Hall.
  destruct (check_matching_sizes _) as [[]| | |] eqn:Ec; cbn [bind] in Hm; try discriminate.
  destruct (had_loop _ _) as [out| | |] eqn:Ef; cbn [bind] in Hm; try discriminate.
  assert (H0 : had_winv [] h_init) by (split; [apply acc_wf_nil | reflexivity]).
  assert (Hout := had_loop_inv had_winv _ _ _ H0 Ef). lapply Hout; clear Hout; [intros Hout|].
  2:{ intros q x r s0 s1 El [Hq Hc] Hx.
      destruct (Hall x) as [Hwx Hax]; [change (In x (flatten_had terms)); rewrite El; apply in_elt|].
      destruct (had_step_inr _ _ _ Hx) as [(-> & _ & Ei)|(a & E & -> & Hfirst)].
      - split; [now apply acc_wf_mono | exact Hc].
      - assert (Hzx : is_MZero x = false) by (destruct x; try reflexivity; discriminate).
        split; [exact (gstep_wf emul is_MHad _ q _ r _ a Ec El Hq Hwx Hzx Hax E)|].
        cbn [h_of h_keep h_ident]. rewrite (gstep_keep _ _ _ _ E). cbn [h_acc c_keep].
        destruct (is_MIdent x) eqn:Hi.
        + destruct x; try discriminate. cbn [concrete is_MDiag is_MDense orb].
          rewrite count_ident_app, Hc, (Hfirst eq_refl). reflexivity.
        + rewrite orb_false_r. destruct (concrete x); [exact Hc|]. rewrite count_ident_app, Hc.
          unfold count_ident. cbn [filter]. rewrite Hi. cbn [length]. lia. }
  destruct out as [z|st].
  - injection Hm as <-. apply Hall. apply Hout.
  - destruct (gfinish merge_had (h_acc st)) as [keep| | |] eqn:Eg; cbn [bind] in Hm; try discriminate.
    injection Hm as <-. destruct Hout as [HI Hci].
    destruct (gfinish_wf is_MHad merge_had merge_had_wf _ _ _ HI Eg) as (tail & -> & Htail).
    destruct HI as [Hk _]. cbn [h_acc c_keep] in *.
    apply (collapse_wf MHad is_MHad); try assumption.
    { apply (gfinish_nonempty _ _ _ Eg). now apply (had_loop_nonempty _ _ Ef). }
    intros Hl. destruct (node_flags is_MHad is_MHad_concrete _ _ Hk Htail Hl) as [F W].
    cbn [wf]. rewrite F, W, andb_true_r. cbn [andb]. apply Nat.leb_le. rewrite count_ident_app, Hci.
    assert (count_ident tail = 0); [|destruct (h_ident st); lia].
    destruct Htail as [->|(c & -> & _ & Hc)]; [reflexivity|]. now destruct c.
Qed.

(* hadamard_product({f1, ..., fn}) denotes the entrywise product *)
Theorem hadamard_product_sound rho fs res :
  hadamard_product fs = Ok res -> same_value rho res (MHad fs).
Proof. intros H. apply value_to_denote. intros s Hs. eapply hadamard_value; eauto. Qed.
