(* C26 -- is_toeplitz (is_toeplitz.cpp, after the repair 2bc9483 of the
   diagonal start bounds). *)
From SE Require Import C26.MatSpec C26.MatLemmas C26.MatPredBase C26.MatPredRules.
From Coq Require Import Lia Ring.
Local Open Scope nat_scope.
Local Open Scope res_scope.

Lemma diag_is_toeplitz_sound rho d :
  sound_answer (diag_is_toeplitz d) P_toeplitz rho (MDiag d).
Proof.
  apply sound_answer_intro. intros s Hs V. subst V.
  rewrite shp_MDiag in Hs. inversion Hs; subst s. unfold P_toeplitz. cbn [fst snd mr mc mf].
  destruct d as [|first [|x1 rest]].
  - cbn. split; [|discriminate]. intros _ i j Hi; lia.
  - cbn [diag_is_toeplitz length]. split; [|discriminate]. intros _ i j Hi; lia.
  - cbn [diag_is_toeplitz].
    set (d := first :: x1 :: rest).
    assert (Hdef : forall x, tz (esub first x) = TT \/ tz (esub first x) = TF) by (intros; apply tz_cases).
    destruct (diag_all_spec (fun x => tz (esub first x)) Hdef (x1 :: rest)) as [[E H]|[E H]]; rewrite E.
    + split; [|discriminate]. intros _ i j Hi Hj. rewrite !val_MDiag.
      assert (Hall : forall k, k < length d -> nth k d e0 = first).
      { intros [|k] Hk; [reflexivity|]. change (nth (S k) d e0) with (nth k (x1 :: rest) e0).
        assert (Hk' : k < length (x1 :: rest)) by (unfold d in Hk; cbn [length] in *; lia).
        pose proof (Forall_nth_e0 _ _ k H Hk') as G. cbn beta in G. apply tz_TT in G. apply (proj1 (esub_zero_iff _ _)) in G.
        exact (eq_sym G). }
      change (S i =? S j) with (i =? j). destruct (i =? j); [|reflexivity].
      rewrite !Hall by lia. reflexivity.
    + split; [discriminate|]. intros _ HP. apply (Exists_nth _ _ e0) in H. destruct H as (k & Hk & Hp).
      apply tz_TF in Hp. apply Hp. apply esub_zero_iff.
      (* all diagonal entries are equal *)
      assert (G : forall q, S q < length d -> nth (S q) d e0 = nth 0 d e0).
      { induction q as [|q IHq]; intros Hq.
        - specialize (HP 0 0 Hq Hq). rewrite !val_MDiag in HP. cbn [Nat.eqb] in HP. now symmetry.
        - specialize (HP (S q) (S q) Hq Hq). rewrite !val_MDiag, !Nat.eqb_refl in HP.
          rewrite <- HP. apply IHq. lia. }
      symmetry. apply (G k). unfold d. cbn [length] in *. lia.
Qed.

Definition tchk (n : nat) (v : list ent) (first : ent) (st : nat * nat) (k : nat) : res tri :=
  do e <- dget n v (fst st + S k) (snd st + S k); Ok (tz (esub first e)).

Lemma in_toeplitz_starts m n i0 j0 :
  In (i0, j0) (toeplitz_starts m n) <->
  exists w, w < Nat.max m n - 1 /\ ((i0 = 0 /\ j0 = w /\ w < n) \/ (i0 = w /\ j0 = 0 /\ w < m /\ w <> 0)).
Proof.
  unfold toeplitz_starts. rewrite in_flat_map. split.
  - intros (w & Hw & Hin). apply in_seq in Hw. exists w. split; [lia|].
    apply in_app_or in Hin. destruct Hin as [Hin|Hin].
    + destruct (Nat.ltb_spec w n); [|destruct Hin]. destruct Hin as [E|[]]. inversion E; subst. left. auto.
    + destruct (Nat.ltb_spec w m); cbn [andb] in Hin; [|destruct Hin].
      destruct (Nat.eqb_spec w 0); cbn [negb] in Hin; [destruct Hin|].
      destruct Hin as [E|[]]. inversion E; subst. right. auto.
  - intros (w & Hw & [(-> & -> & Hn)|(-> & -> & Hm & Hz)]); exists w.
    + split; [apply in_seq; lia|]. apply in_or_app. left.
      apply Nat.ltb_lt in Hn. rewrite Hn. now left.
    + split; [apply in_seq; lia|]. apply in_or_app. right.
      apply Nat.ltb_lt in Hm. rewrite Hm. apply Nat.eqb_neq in Hz. rewrite Hz. now left.
Qed.

Definition tcnt (m n : nat) (st : nat * nat) : nat := Nat.min (m - S (fst st)) (n - S (snd st)).

(* the nested loops, under the hypothesis that every read succeeds *)
Lemma toeplitz_loops m n v (starts : list (nat * nat)) :
  (forall st, In st starts -> fst st * n + snd st < length v) ->
  (forall st k, In st starts -> k < tcnt m n st -> (fst st + S k) * n + (snd st + S k) < length v) ->
  let first st := nth (fst st * n + snd st) v e0 in
  let outer := loop_tri (fun st cur =>
      do f <- dget n v (fst st) (snd st);
      loop_tri (fun k cur' =>
          do e <- dget n v (fst st + S k) (snd st + S k);
          Ok (and_tri cur' (tz (esub f e))))
        (seq 0 (tcnt m n st)) cur) starts TT in
  exists t, outer = Ok t /\
    ((t = TT /\ forall st k, In st starts -> k < tcnt m n st -> tchk n v (first st) st k = Ok TT) \/
     (t = TF /\ exists st k, In st starts /\ k < tcnt m n st /\ tchk n v (first st) st k = Ok TF)).
Proof.
  intros Hget Hget2 first. cbn zeta.
  induction starts as [|st starts IH]; cbn [loop_tri].
  - exists TT. split; [reflexivity|]. left. split; [reflexivity | intros st k []].
  - unfold dget at 1. rewrite rd_lt by (apply Hget; now left). cbn [bind]. fold (first st).
    rewrite (loop_tri_ext _ (fun k cur' => do b <- tchk n v (first st) st k; Ok (and_tri cur' b))).
    2:{ intros k cur' _. unfold tchk. destruct (dget n v (fst st + S k) (snd st + S k)); reflexivity. }
    assert (Hdef : forall k, In k (seq 0 (tcnt m n st)) ->
                     tchk n v (first st) st k = Ok TT \/ tchk n v (first st) st k = Ok TF).
    { intros k Hk. apply in_seq in Hk. unfold tchk, dget.
      rewrite rd_lt by (apply Hget2; [now left | lia]). cbn [bind].
      destruct (tz_cases (esub (first st) (nth ((fst st + S k) * n + (snd st + S k)) v e0))) as [-> | ->]; auto. }
    destruct (loop_and_spec (tchk n v (first st) st) (seq 0 (tcnt m n st)) Hdef) as [[E A]|[E (k & Hk & Ek)]];
      rewrite E; cbn [bind is_false].
    + destruct IH as (t' & E' & H').
      * intros; apply Hget; now right.
      * intros; apply Hget2; [now right | assumption].
      * exists t'. split; [exact E'|]. destruct H' as [[-> A']|[-> (st' & k' & Hin & Hk' & Ek')]].
        -- left. split; [reflexivity|]. intros st0 k0 [<-|Hin] Hk0.
           ++ apply A. apply in_seq. lia.
           ++ now apply A'.
        -- right. split; [reflexivity|]. exists st', k'. split; [now right | auto].
    + exists TF. split; [reflexivity|]. right. split; [reflexivity|].
      exists st, k. apply in_seq in Hk. split; [now left|]. split; [lia | assumption].
Qed.

Lemma diag_const (f : nat -> nat -> ent) m n i0 j0 :
  (forall i j, S i < m -> S j < n -> f i j = f (S i) (S j)) ->
  forall k, i0 + k < m -> j0 + k < n -> f (i0 + k) (j0 + k) = f i0 j0.
Proof.
  intros H. induction k as [|k IH]; intros Hi Hj.
  - now rewrite !Nat.add_0_r.
  - rewrite !Nat.add_succ_r. rewrite <- H by lia. apply IH; lia.
Qed.

(* every entry the two loops read lies inside the vector *)
Lemma toeplitz_reads m n (v : list ent) :
  1 <= m -> 1 <= n -> length v = m * n ->
  (forall st, In st (toeplitz_starts m n) -> fst st * n + snd st < length v) /\
  (forall st k, In st (toeplitz_starts m n) -> k < tcnt m n st ->
     (fst st + S k) * n + (snd st + S k) < length v).
Proof.
  intros Hm1 Hn1 Lv. rewrite Lv. split.
  - intros [i0 j0] Hin. apply in_toeplitz_starts in Hin. cbn [fst snd].
    destruct Hin as (w & Hw & [(-> & -> & Hn)|(-> & -> & Hm & Hz)]); apply idx_lt; lia.
  - intros [i0 j0] k Hin Hk. unfold tcnt in Hk. cbn [fst snd] in *. apply idx_lt; lia.
Qed.

Lemma dense_is_toeplitz_sound rho m n v t :
  1 <= m -> 1 <= n ->
  dense_is_toeplitz m n v = Ok t -> sound_answer t P_toeplitz rho (MDense m n v).
Proof.
  intros Hm1 Hn1 H. apply sound_answer_intro. intros s Hs V. subst V.
  apply shp_MDense_Some in Hs. destruct Hs as [Lv ->]. unfold P_toeplitz. cbn [fst snd mr mc mf].
  unfold dense_is_toeplitz in H.
  destruct (toeplitz_reads m n v Hm1 Hn1 Lv) as [Hget Hget2].
  destruct (toeplitz_loops m n v (toeplitz_starts m n) Hget Hget2) as (t0 & E & [[-> A]|[-> (st & k & Hin & Hk & Ek)]]);
    unfold tcnt in *; rewrite E in H; inversion H; subst t.
  - split; [|discriminate]. intros _ i j Hi Hj. rewrite !val_MDense.
    (* the diagonal through (i, j) starts at (i - d, j - d), d = min i j *)
    set (d := Nat.min i j). set (i0 := i - d). set (j0 := j - d).
    assert (Hst : In (i0, j0) (toeplitz_starts m n)).
    { apply in_toeplitz_starts. subst i0 j0 d.
      destruct (Nat.le_gt_cases j i).
      - rewrite Nat.min_r by lia. destruct (Nat.eq_dec i j) as [->|Hne].
        + exists 0. split; [lia|]. left. repeat split; lia.
        + exists (i - j). split; [lia|]. right. repeat split; lia.
      - rewrite Nat.min_l by lia. exists (j - i). split; [lia|]. left. repeat split; lia. }
    assert (Hq : forall q, i0 + S q < m -> j0 + S q < n ->
               nth ((i0 + S q) * n + (j0 + S q)) v e0 = nth (i0 * n + j0) v e0).
    { intros q Hq1 Hq2. specialize (A (i0, j0) q Hst). cbn [fst snd] in A.
      assert (Hlt : q < Nat.min (m - S i0) (n - S j0)) by lia. specialize (A Hlt).
      unfold tchk, dget in A. cbn [fst snd] in A. rewrite rd_lt in A by (rewrite Lv; now apply idx_lt).
      cbn [bind] in A. injection A as A. apply tz_TT in A. apply (proj1 (esub_zero_iff _ _)) in A. now symmetry. }
    assert (Ei : i = i0 + d) by (subst i0 d; lia). assert (Ej : j = j0 + d) by (subst j0 d; lia).
    clearbody i0 j0 d.
    destruct d as [|d'].
    + rewrite Nat.add_0_r in Ei, Ej. subst i j.
      replace (S i0) with (i0 + 1) by lia. replace (S j0) with (j0 + 1) by lia.
      symmetry. apply Hq; lia.
    + rewrite Ei, Ej.
      replace (S (i0 + S d')) with (i0 + S (S d')) by lia. replace (S (j0 + S d')) with (j0 + S (S d')) by lia.
      rewrite (Hq d') by lia. symmetry. apply Hq; lia.
  - split; [discriminate|]. intros _ HP. destruct st as [i0 j0]. cbn [fst snd] in *.
    unfold tchk, dget in Ek. rewrite rd_lt in Ek by now apply Hget2.
    cbn [fst snd] in Ek.
    cbn [bind] in Ek. injection Ek as Ek. apply tz_TF in Ek. apply Ek. apply esub_zero_iff.
    pose proof (diag_const (fun a b => nth (a * n + b) v e0) m n i0 j0) as G. cbn beta in G.
    symmetry. apply G; [|lia|lia].
    intros a b Ha Hb. specialize (HP a b Ha Hb). now rewrite !val_MDense in HP.
Qed.

Lemma dense_is_toeplitz_total m n v :
  1 <= m -> 1 <= n -> length v = m * n -> exists t, dense_is_toeplitz m n v = Ok t.
Proof.
  intros Hm1 Hn1 Lv. unfold dense_is_toeplitz.
  destruct (toeplitz_reads m n v Hm1 Hn1 Lv) as [Hget Hget2].
  destruct (toeplitz_loops m n v (toeplitz_starts m n) Hget Hget2) as (t0 & E & _);
    unfold tcnt in *; rewrite E; eauto.
Qed.

Theorem is_toeplitz_sound rho e t :
  wf e = true -> is_toeplitz e = Ok t -> sound_answer t P_toeplitz rho e.
Proof.
  intros Hwf H. destruct e; cbn [is_toeplitz] in H; try (inversion H; subst; intros V _; split; discriminate).
  - inversion H; subst. intros V HV. split; [|discriminate]. intros _ i j _ _.
    apply denote_Some in HV. destruct HV as (s & Hs & ->). cbn [mf]. rewrite !val_MIdent. unfold delta.
    change (S i =? S j) with (i =? j). reflexivity.
  - inversion H; subst. intros V HV. split; [|discriminate]. intros _ i j _ _.
    apply denote_Some in HV. destruct HV as (s & Hs & ->). reflexivity.
  - inversion H; subst. apply diag_is_toeplitz_sound.
  - cbn [wf] in Hwf. apply andb_true_iff in Hwf. destruct Hwf as [Hwf _].
    apply andb_true_iff in Hwf. destruct Hwf as [A B]. apply Nat.leb_le in A. apply Nat.leb_le in B.
    now apply dense_is_toeplitz_sound.
Qed.
