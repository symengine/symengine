(* C26 obligation: transpose(e) denotes the transposed dense value of e. *)
From SE Require Import C26.MatSpec C26.MatUnaryProofs.
Theorem C26_transpose_sound :
  forall (rho : env) (e r : mexpr) (V : mat),
    transpose e = Ok r -> denote rho e = Some V ->
    exists V', denote rho r = Some V' /\ meq V' (mkmat (mc V) (mr V) (fun i j => mf V j i)).
Proof. exact transpose_sound. Qed.
Print Assumptions C26_transpose_sound.
