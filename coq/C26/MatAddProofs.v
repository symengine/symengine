(* C26 -- matrix_add (matrix_add.cpp) as an instance of the folding loop of MatFold.v, with eadd / e0 /
   MatrixAdd: it preserves the value of the sum and well-formedness, and throws only from the size check.
   What is particular to it: a ZeroMatrix operand is dropped and only remembered, to be returned when
   nothing else is left. *)
From SE Require Import C26.MatSpec C26.MatLemmas C26.MatFold.
From Coq Require Import Lia Ring.
Local Open Scope nat_scope.
Local Open Scope res_scope.

Lemma eadd_assoc a b c : eadd a (eadd b c) = eadd (eadd a b) c. Proof. ring. Qed.
Lemma eadd_comm a b : eadd a b = eadd b a. Proof. ring. Qed.

Definition flat_add (t : mexpr) : list mexpr := match t with MAdd ts => ts | _ => [t] end.

Lemma flat_add_spec t :
  (is_MAdd t = false /\ flat_add t = [t]) \/ (exists ts, t = MAdd ts /\ flat_add t = ts).
Proof. destruct t; eauto. Qed.

Lemma is_MAdd_concrete c : concrete c = true -> is_MAdd c = false.
Proof. now destruct c. Qed.

Lemma wf_MAdd_kids ts :
  wf (MAdd ts) = true -> 2 <= length ts /\ Forall (fun x => wf x = true /\ is_MAdd x = false) ts.
Proof.
  cbn [wf]. rewrite !andb_true_iff, Nat.leb_le, !forallb_forall, Forall_forall.
  intros [[[Hl Hk] _] Hw]. split; [exact Hl|]. intros x Hx. split; [auto|].
  specialize (Hk x Hx). apply negb_true_iff, orb_false_iff in Hk. tauto.
Qed.

Definition a_acc (st : add_state) : acc :=
  {| c_keep := a_keep st; c_diag := a_diag st; c_dense := a_dense st |}.
Definition a_of (a : acc) (z : option (dim * dim)) : add_state :=
  {| a_keep := c_keep a; a_diag := c_diag a; a_dense := c_dense a; a_zero := z |}.

Definition a_init : add_state := {| a_keep := []; a_diag := None; a_dense := None; a_zero := None |}.

Lemma add_step_eq st t :
  add_step st t = match t with
                  | MZero m n => Ok (a_of (a_acc st) (Some (m, n)))
                  | _ => do a <- gstep eadd (a_acc st) t; Ok (a_of a (a_zero st))
                  end.
Proof.
  unfold add_step, gstep. destruct t; try reflexivity; cbn [a_acc c_diag c_dense].
  - destruct (a_diag st); [destruct (zipc _ _ _ _)|]; reflexivity.
  - destruct (a_dense st) as [[[? ?] ?]|]; [destruct (zipc _ _ _ _)|]; reflexivity.
Qed.

(* a step notes a ZeroMatrix or is a step of the generic loop *)
Lemma add_step_cases st t st' :
  add_step st t = Ok st' ->
  (exists m n, t = MZero m n /\ st' = a_of (a_acc st) (Some (m, n))) \/
  (exists a, gstep eadd (a_acc st) t = Ok a /\ st' = a_of a (a_zero st) /\ is_MZero t = false).
Proof.
  rewrite add_step_eq. intros H.
  destruct t; try (injection H as <-; left; eauto; fail);
    destruct (gstep eadd (a_acc st) _) as [a| | |] eqn:Eg; cbn [bind] in H; try discriminate;
    injection H as <-; right; exists a; auto.
Qed.

Definition merge_add (d : list ent) (m n : nat) (v : list ent) : res mexpr :=
  do s <- add_diag_dense d m n v; Ok (MDense m n s).

Definition add_result (keep : list mexpr) (z : option (dim * dim)) : mexpr :=
  match keep, z with
  | [], Some (zm, zn) => MZero zm zn
  | _, _ => collapse MAdd keep
  end.

Lemma matrix_add_eq terms :
  matrix_add terms =
  match terms with
  | [] => ErrExn EXN_DOMAIN
  | [t] => Ok t
  | _ =>
      do _ <- check_matching_sizes (flatten_add terms);
      do st <- foldM add_step (flatten_add terms) a_init;
      do keep <- gfinish merge_add (a_acc st);
      Ok (add_result keep (a_zero st))
  end.
Proof.
  assert (R : forall keep z,
    match keep, z with [x], _ => Ok x | [], Some (zm, zn) => Ok (MZero zm zn) | _, _ => Ok (MAdd keep) end
    = Ok (add_result keep z)) by (intros [|x [|y l]] [[zm zn]|]; reflexivity).
  destruct terms as [|t0 [|t1 r]]; try reflexivity. unfold matrix_add.
  destruct (check_matching_sizes _); try reflexivity. cbn [bind]. fold a_init.
  destruct (foldM add_step _ _) as [st| | |]; try reflexivity. cbn [bind].
  unfold gfinish, merge_add. cbn [a_acc c_keep c_diag c_dense].
  destruct (a_diag st), (a_dense st) as [[[m n] v]|]; cbn [bind fst snd]; try apply R.
  destruct (add_diag_dense _ _ _ _); cbn [bind fst snd]; [apply R | reflexivity ..].
Qed.

(* whatever was processed is in the accumulator or was a ZeroMatrix *)
Lemma add_loop_nonempty l st :
  foldM add_step l a_init = Ok st ->
  l <> [] -> acc_list (a_acc st) <> [] \/ a_zero st <> None.
Proof.
  intros Hf.
  refine (foldM_inv add_step (fun q st => q <> [] -> acc_list (a_acc st) <> [] \/ a_zero st <> None) l _ st _ Hf _);
    [congruence|].
  intros q x r s0 s1 _ _ Hx _.
  destruct (add_step_cases _ _ _ Hx) as [(m & n & _ & ->)|(a & Eg & -> & _)];
    [right; discriminate | left; exact (gstep_nonempty _ _ _ _ Eg)].
Qed.

Lemma add_diag_dense_val rho d n v r i j :
  add_diag_dense d n n v = Ok r -> length d = n -> length v = n * n -> i < n -> j < n ->
  val rho (MDense n n r) i j = eadd (val rho (MDiag d) i j) (val rho (MDense n n v) i j).
Proof.
  intros H Ld Lv Hi Hj. unfold add_diag_dense in H.
  apply (tab2_spec _ _ _ _ e0) in H. destruct H as [_ Hn].
  specialize (Hn i j Hi Hj). rewrite !val_MDense, val_MDiag.
  unfold dget in Hn. rewrite rd_lt in Hn by (rewrite Lv; now apply idx_lt). destruct (i =? j); cbn [bind] in Hn.
  - rewrite rd_lt in Hn by lia. injection Hn as <-. ring.
  - injection Hn as <-. ring.
Qed.

Lemma merge_add_val rho d n v c :
  merge_add d n n v = Ok c -> length d = n -> length v = n * n ->
  shp rho c = Some (n, n) /\
  forall i j, i < n -> j < n -> val rho c i j = eadd (val rho (MDiag d) i j) (val rho (MDense n n v) i j).
Proof.
  unfold merge_add. intros H Ld Lv.
  destruct (add_diag_dense d n n v) as [r| | |] eqn:E; cbn [bind] in H; try discriminate. injection H as <-. split.
  - unfold add_diag_dense in E. apply tab2_length in E. now rewrite shp_MDense, E, Nat.eqb_refl.
  - intros i j. now apply add_diag_dense_val.
Qed.

Section AddValue.
  Variables (rho : env) (s : shape).

  Definition add_inv (p : list mexpr) (st : add_state) : Prop :=
    acc_inv eadd e0 rho s p (a_acc st) /\
    forall zm zn, a_zero st = Some (zm, zn) -> shp rho (MZero zm zn) = Some s.

  Lemma add_step_inv p st t st' :
    add_inv p st -> shp rho t = Some s -> add_step st t = Ok st' -> add_inv (p ++ [t]) st'.
  Proof.
    intros [HI Hz] Ht H.
    destruct (add_step_cases _ _ _ H) as [(m & n & -> & ->)|(a & Eg & -> & _)].
    - split.
      + apply (acc_inv_absorb eadd e0 eadd_assoc eadd_comm eadd_0_l); [exact HI|]. intros. apply eadd_0_r.
      + cbn [a_of a_zero]. intros zm zn E. now injection E as <- <-.
    - split; [|exact Hz].
      exact (gstep_inv eadd e0 eadd_assoc eadd_comm eadd_0_l (eadd_0_l e0) rho s p _ _ _ HI Ht Eg).
  Qed.

  Theorem matrix_add_value terms res :
    matrix_add terms = Ok res -> shp rho (MAdd terms) = Some s ->
    shp rho res = Some s /\
    forall i j, i < fst s -> j < snd s -> val rho res i j = val rho (MAdd terms) i j.
  Proof.
    rewrite matrix_add_eq, shp_MAdd. intros Hm Hs.
    pose proof (collapse_value eadd e0 eadd_comm eadd_0_l MAdd rho (shp_MAdd rho) (val_MAdd rho) s) as Hcol.
    destruct terms as [|t0 [|t1 rest]]; [discriminate | |].
    { injection Hm as <-. apply shape_all_Forall in Hs. destruct (Hcol [t0]) as [A B]; try tauto.
      split; [exact A|]. intros i j _ _. rewrite val_MAdd. apply B. }
    set (terms := t0 :: t1 :: rest) in *.
    apply (flatten_shape MAdd is_MAdd flat_add flat_add_spec rho (shp_MAdd rho)) in Hs.
    apply shape_all_Forall in Hs. destruct Hs as [Hne Hall]. rewrite Forall_forall in Hall.
    destruct (check_matching_sizes _); cbn [bind] in Hm; try discriminate.
    destruct (foldM add_step _ _) as [st| | |] eqn:Ef; cbn [bind] in Hm; try discriminate.
    destruct (gfinish merge_add (a_acc st)) as [keep| | |] eqn:Eg; cbn [bind] in Hm; try discriminate.
    injection Hm as <-.
    assert (HI : add_inv (flatten_add terms) st).
    { assert (H0 : add_inv [] a_init)
        by (split; [apply acc_inv_nil | discriminate]).
      refine (foldM_inv add_step add_inv _ _ _ H0 Ef _).
      intros q x r s0 s1 El Hq Hx. apply (add_step_inv q s0 x s1 Hq); [|exact Hx].
      apply Hall. change (In x (flatten_add terms)). rewrite El. apply in_elt. }
    destruct HI as [HI Hz].
    destruct (gfinish_value eadd e0 eadd_assoc eadd_comm eadd_0_l merge_add rho (merge_add_val rho) s _ _ _ HI Eg)
      as [Hk Hkv].
    assert (Hval : forall i j, i < fst s -> j < snd s ->
              esum (map (fun e => val rho e i j) keep) = val rho (MAdd terms) i j).
    { intros i j Hi Hj. rewrite val_MAdd. etransitivity; [exact (Hkv i j Hi Hj)|].
      exact (flatten_val eadd e0 eadd_assoc eadd_comm eadd_0_l MAdd is_MAdd flat_add flat_add_spec rho (val_MAdd rho) terms i j). }
    destruct keep as [|x keep']; cbn [add_result].
    - destruct (add_loop_nonempty _ _ Ef Hne) as [H|H]; [now apply (gfinish_nonempty _ _ _ Eg) in H|].
      destruct (a_zero st) as [[zm zn]|]; [|congruence]. split; [now apply Hz|].
      intros i j Hi Hj. now rewrite <- Hval.
    - destruct (Hcol (x :: keep')) as [A B]; [discriminate | exact Hk|].
      split; [exact A|]. intros i j Hi Hj. rewrite <- Hval by assumption. apply B.
  Qed.
End AddValue.

Lemma merge_add_wf d m n v c :
  merge_add d m n v = Ok c -> d <> [] -> 1 <= m -> 1 <= n -> length v = m * n ->
  wf c = true /\ concrete c = true.
Proof.
  unfold merge_add, add_diag_dense. intros H _ Hm Hn _.
  destruct (tab2 m n _) as [r| | |] eqn:E; cbn [bind] in H; try discriminate. injection H as <-.
  apply tab2_length in E. split; [|reflexivity]. apply wf_MDense. auto.
Qed.

Theorem matrix_add_wf terms res :
  Forall (fun e => wf e = true) terms -> matrix_add terms = Ok res -> wf res = true.
Proof.
  rewrite matrix_add_eq. intros Hw Hm.
  destruct terms as [|t0 [|t1 rest]]; [discriminate | injection Hm as <-; now inversion Hw |].
  set (terms := t0 :: t1 :: rest) in *.
  pose proof (flatten_wf MAdd is_MAdd flat_add flat_add_spec wf_MAdd_kids terms Hw) as Hall.
  pose proof (flatten_wf_nonempty MAdd is_MAdd flat_add flat_add_spec wf_MAdd_kids terms ltac:(discriminate) Hw) as Hne.
  rewrite Forall_forall in Hall.
  destruct (check_matching_sizes _) as [[]| | |] eqn:Ec; cbn [bind] in Hm; try discriminate.
  destruct (foldM add_step _ _) as [st| | |] eqn:Ef; cbn [bind] in Hm; try discriminate.
  destruct (gfinish merge_add (a_acc st)) as [keep| | |] eqn:Eg; cbn [bind] in Hm; try discriminate.
  injection Hm as <-.
  assert (HI : acc_wf is_MAdd (flatten_add terms) (a_acc st)).
  { refine (foldM_inv add_step (fun q st => acc_wf is_MAdd q (a_acc st)) _ a_init st (acc_wf_nil is_MAdd) Ef _).
    intros q x r s0 s1 El Hq Hx.
    destruct (Hall x) as [Hwx Hax]; [change (In x (flatten_add terms)); rewrite El; apply in_elt|].
    destruct (add_step_cases _ _ _ Hx) as [(m & n & _ & ->)|(a & E & -> & Hzx)];
      [now apply acc_wf_mono | exact (gstep_wf eadd is_MAdd _ q _ r _ _ Ec El Hq Hwx Hzx Hax E)]. }
  destruct (gfinish_wf is_MAdd merge_add merge_add_wf _ _ _ HI Eg) as (tail & -> & Htail).
  destruct HI as [Hk _]. cbn [a_acc c_keep] in *.
  destruct (a_keep st ++ tail) as [|x l] eqn:E; cbn [add_result].
  - destruct (add_loop_nonempty _ _ Ef Hne) as [H|H]; [now apply (gfinish_nonempty _ _ _ Eg) in H|].
    now destruct (a_zero st) as [[zm zn]|].
  - rewrite <- E. apply (collapse_wf MAdd is_MAdd); try assumption; [rewrite E; discriminate|].
    intros Hl. destruct (node_flags is_MAdd is_MAdd_concrete _ _ Hk Htail Hl) as [F W]. cbn [wf]. now rewrite F, W.
Qed.

(* matrix_add({t1, ..., tn}) denotes t1 + ... + tn *)
Theorem matrix_add_sound rho terms res :
  matrix_add terms = Ok res -> same_value rho res (MAdd terms).
Proof. intros H. apply value_to_denote. intros s Hs. eapply matrix_add_value; eauto. Qed.
