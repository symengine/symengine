(* C26 -- no out-of-range access: on well-formed expressions the predicates, transpose,
   conjugate_matrix and trace never reach an [ErrOOB] (the class of the is_toeplitz defect). *)
From SE Require Import C26.MatSpec C26.MatLemmas C26.MatPredBase C26.MatPredRules
  C26.MatPredSym C26.MatPredToep C26.MatWfOps.
From Coq Require Import Lia.
Local Open Scope nat_scope.
Local Open Scope res_scope.

Lemma add_rule_total (p : mexpr -> res tri) l : forall found,
  (forall x, In x l -> exists t, p x = Ok t) -> exists t, add_rule p l found = Ok t.
Proof.
  induction l as [|x l IH]; intros found H; cbn [add_rule]; [eauto|].
  destruct (H x (or_introl eq_refl)) as [t ->]. cbn [bind].
  destruct t; [apply IH; intros; apply H; now right | | eauto].
  destruct found; [eauto|]. apply IH; intros; apply H; now right.
Qed.

Lemma had_rule_total (p : mexpr -> res tri) l :
  (forall x, In x l -> exists t, p x = Ok t) -> exists t, had_rule p l = Ok t.
Proof.
  induction l as [|x l IH]; intros H; cbn [had_rule]; [eauto|].
  destruct (H x (or_introl eq_refl)) as [t ->]. cbn [bind].
  destruct (is_true t); [eauto|]. apply IH; intros; apply H; now right.
Qed.

Lemma sym_had_rule_total (p : mexpr -> res tri) l :
  (forall x, In x l -> exists t, p x = Ok t) -> exists t, sym_had_rule p l = Ok t.
Proof.
  rewrite sym_had_rule_eq. destruct l as [|x0 l0]; [eauto|]. generalize (x0 :: l0). clear.
  induction l as [|x l IH]; intros H; cbn [sym_go]; [eauto|].
  destruct (H x (or_introl eq_refl)) as [t ->]. cbn [bind].
  destruct (is_true t); [|eauto]. apply IH; intros; apply H; now right.
Qed.

Lemma gpred_total D sym e :
  (forall m n v, length v = m * n -> exists t, D m n v = Ok t) ->
  wf e = true -> exists t, gpred D sym e = Ok t.
Proof.
  intros HD. induction e as [n|m n|x|d|m n v|ts IH|k fs IH|fs IH|a IHa|a IHa] using mexpr_ind';
    intros Hw; cbn [gpred]; eauto.
  - apply wf_MDense in Hw. apply HD. tauto.
  - apply add_rule_total. pose proof (wf_children_MAdd ts Hw) as Hc.
    rewrite Forall_forall in IH, Hc. intros x Hx. apply IH; auto.
  - pose proof (wf_children_MHad fs Hw) as Hc. rewrite Forall_forall in IH, Hc.
    destruct sym; [apply sym_had_rule_total | apply had_rule_total]; intros x Hx; apply IH; auto.
Qed.

Theorem predicates_total e :
  wf e = true ->
  (exists t, is_diagonal e = Ok t) /\ (exists t, is_symmetric e = Ok t) /\
  (exists t, is_lower e = Ok t) /\ (exists t, is_upper e = Ok t) /\ (exists t, is_toeplitz e = Ok t).
Proof.
  intros Hw. split; [|split; [|split; [|split]]].
  - rewrite is_diagonal_gpred. apply gpred_total; [apply dense_sound_diag | assumption].
  - rewrite is_symmetric_gpred. apply gpred_total; [apply dense_is_symmetric_total | assumption].
  - rewrite is_lower_gpred. apply gpred_total; [apply dense_sound_lower | assumption].
  - rewrite is_upper_gpred. apply gpred_total; [apply dense_sound_upper | assumption].
  - destruct e; cbn [is_toeplitz]; eauto.
    apply wf_MDense in Hw. destruct Hw as (A & B & C). now apply dense_is_toeplitz_total.
Qed.

Theorem transpose_total e : wf e = true -> exists r, transpose e = Ok r.
Proof.
  induction e as [n|m n|x|d|m n v|ts IH|k fs IH|fs IH|a IHa|a IHa] using mexpr_ind';
    intros Hw; cbn [transpose]; eauto.
  - apply wf_MDense in Hw. destruct Hw as (A & B & C).
    destruct (tab2_total n m (fun j i => dget n v i j)) as [t Ht].
    { intros j i Hj Hi. unfold dget. rewrite rd_lt by (rewrite C; apply idx_lt; lia). eauto. }
    rewrite Ht. cbn [bind]. eauto.
  - pose proof (wf_children_MAdd ts Hw) as Hc. rewrite Forall_forall in IH, Hc.
    destruct (mapM_total transpose ts) as [t Ht]; [intros x Hx; apply IH; auto|]. rewrite Ht. cbn [bind]. eauto.
  - pose proof (wf_children_MHad fs Hw) as Hc. rewrite Forall_forall in IH, Hc.
    destruct (mapM_total transpose fs) as [t Ht]; [intros x Hx; apply IH; auto|]. rewrite Ht. cbn [bind]. eauto.
Qed.

Theorem conjugate_total e : exists r, conjugate_matrix e = Ok r.
Proof.
  induction e as [n|m n|x|d|m n v|ts IH|k fs IH|fs IH|a IHa|a IHa] using mexpr_ind';
    cbn [conjugate_matrix]; eauto.
  - rewrite Forall_forall in IH.
    destruct (mapM_total conjugate_matrix ts) as [t Ht]; [intros x Hx; apply IH; auto|]. rewrite Ht. cbn [bind]. eauto.
  - rewrite Forall_forall in IH.
    destruct (mapM_total conjugate_matrix fs) as [t Ht]; [intros x Hx; apply IH; auto|]. rewrite Ht. cbn [bind]. eauto.
Qed.

(* trace either succeeds or throws DomainError *)
Theorem trace_total e : wf e = true -> (exists t, trace e = Ok t) \/ trace e = ErrExn EXN_DOMAIN.
Proof.
  induction e as [n|m n|x|d|m n v|ts IH|k fs IH|fs IH|a IHa|a IHa] using mexpr_ind';
    intros Hw; cbn [trace]; eauto.
  - destruct n; eauto.
  - destruct (dim_diff_zero m n); eauto.
  - apply wf_MDense in Hw. destruct Hw as (A & B & C).
    destruct (Nat.eqb_spec m n) as [->|]; cbn [negb]; [|now right].
    destruct (mapM_total (fun i => dget n v i i) (seq 0 n)) as [dg Hdg].
    { intros i Hi. apply in_seq in Hi. unfold dget. rewrite rd_lt by (rewrite C; apply idx_lt; lia). eauto. }
    rewrite Hdg. cbn [bind]. eauto.
  - pose proof (wf_children_MAdd ts Hw) as Hc. clear Hw. generalize (t_of_num e0).
    induction ts as [|x ts IHts]; intros acc; cbn [foldM]; [eauto|].
    inversion IH; subst. inversion Hc; subst.
    destruct (H1 H3) as [[t ->]| ->]; cbn [bind]; [|now right]. now apply IHts.
Qed.
