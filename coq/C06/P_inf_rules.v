(* C06 obligation: the extended-number rules.
   oo + -oo = nan (directions differ or zoo: nan; equal nonzero directions: kept);
   an Infty absorbs every finite summand; 0 * oo = nan for every zero (exact or float);
   a positive / negative real factor keeps / flips the direction (also as a divisor);
   oo * oo multiplies directions; oo / oo = nan.
   (exact nonzero / exact zero = zoo is C05_div_by_exact_zero.)
   REFUTED for zoo times a complex number: the code throws for an exact Complex and answers nan
   for a ComplexDouble (replayed: `mul C:1,2 INF:0`). *)
From SE Require Import Num.NumModel Num.NumC06.
Local Open Scope Z_scope.
Theorem C06_inf_rules :
  (forall d d', num_add (NInf d) (NInf d') = Ok (if (d =? d') && negb (d =? 0) then NInf d else NNaN)) /\
  (forall d x, is_inf x = false -> x <> NNaN ->
     num_add (NInf d) x = Ok (NInf d) /\ num_add x (NInf d) = Ok (NInf d)) /\
  (forall d x, num_is_zero x = true -> num_mul (NInf d) x = Ok NNaN /\ num_mul x (NInf d) = Ok NNaN) /\
  (forall d x, is_inf x = false -> is_exact_cplx x = false ->
     (num_is_positive x = true -> num_mul (NInf d) x = Ok (NInf d) /\ num_mul x (NInf d) = Ok (NInf d) /\
                                  num_div (NInf d) x = Ok (NInf d)) /\
     (num_is_negative x = true -> num_mul (NInf d) x = Ok (NInf (d * -1)) /\ num_mul x (NInf d) = Ok (NInf (d * -1)))) /\
  (forall d d', num_mul (NInf d) (NInf d') = Ok (NInf (d * d'))) /\
  (forall d d', num_div (NInf d) (NInf d') = Ok NNaN).
Proof.
  exact (conj inf_add_rule (conj inf_plus_finite (conj zero_times_inf (conj inf_sign_rule
          (conj inf_times_inf inf_div_inf))))).
Qed.
Print Assumptions C06_inf_rules.
Theorem C06_inf_rules_refuted :
  num_mul (NCplx 1 1 2 1) (NInf 0) = ErrExn EXN_NOTIMPL /\
  num_mul (NInf 0) (NCDbl 4607182418800017408 4611686018427387904) = Ok NNaN.
Proof. exact inf_rules_refuted. Qed.
