(* C14 -- compile_sound: running the straight-line SSA program that [flatten] emits for the operation
   trees of an init gives, for every input vector, the values of those trees ([xeval]); with the
   symbolic-CSE pre-pass the replacement values are computed once and shared. *)
From Coq Require Import ZArith NArith List Bool Lia.
From SE Require Import C14.LlvmModel.
Import ListNotations.

Arguments LlvmModel.opval {F} inp regs o : simpl never.
Arguments LlvmModel.step {F} A inp regs i : simpl never.

Section PROOFS.
Context {F : Type}.
Variable A : lalg F.
Variable inp : list F.

Notation exec := (exec A inp).
Notation opval := (@opval F inp).
Notation xeval := (xeval A inp).
Notation flatten := (@flatten F).
Notation step := (step A inp).

Definition ok_opnd (regs : list (option (@val F))) (o : @opnd F) : Prop :=
  match o with OR r => (r < length regs)%nat | _ => True end.

Lemma exec_app : forall c1 c2 regs, exec (c1 ++ c2) regs = exec c2 (exec c1 regs).
Proof. induction c1; intros; simpl; auto. Qed.

Lemma exec_ext : forall c regs, exists ext, exec c regs = regs ++ ext /\ length ext = length c.
Proof.
  induction c as [ | i c IH ]; intro regs; simpl.
  - exists []. rewrite app_nil_r. auto.
  - destruct (IH (regs ++ [step regs i])) as [ext [H1 H2]].
    exists (step regs i :: ext). rewrite H1, <- app_assoc. simpl. auto.
Qed.

Lemma opval_app : forall regs ext o, ok_opnd regs o -> opval (regs ++ ext) o = opval regs o.
Proof.
  intros regs ext [v | i | r | ] H; unfold LlvmModel.opval, ok_opnd in *; auto.
  rewrite nth_error_app1 by auto. reflexivity.
Qed.

Lemma ok_opnd_app : forall regs ext o, ok_opnd regs o -> ok_opnd (regs ++ ext) o.
Proof. intros regs ext [v | i | r | ] H; simpl in *; auto. rewrite app_length. lia. Qed.

Lemma map_opval_app : forall regs ext refs, Forall (ok_opnd regs) refs ->
  map (opval (regs ++ ext)) refs = map (opval regs) refs.
Proof.
  intros regs ext refs H. induction H; simpl; auto. rewrite IHForall, opval_app by auto. reflexivity.
Qed.

Lemma Forall_ok_app : forall regs ext refs, Forall (ok_opnd regs) refs -> Forall (ok_opnd (regs ++ ext)) refs.
Proof. intros regs ext refs H. induction H; constructor; auto using ok_opnd_app. Qed.

Lemma opval_last : forall regs v, opval (regs ++ [v]) (OR (length regs)) = v.
Proof. intros. unfold LlvmModel.opval. rewrite nth_error_app2 by lia. rewrite Nat.sub_diag. reflexivity. Qed.

Lemma nth_refs : forall (refs : list (@opnd F)) regs k,
  opval regs (nth k refs OU) = match nth_error (map (opval regs) refs) k with Some v => v | None => None end.
Proof.
  induction refs as [ | o refs IH ]; intros regs k; destruct k; cbn [nth map nth_error]; auto.
Qed.

Lemma ok_nth_refs : forall (refs : list (@opnd F)) regs k, Forall (ok_opnd regs) refs -> ok_opnd regs (nth k refs OU).
Proof.
  induction refs as [ | o refs IH ]; intros regs k H; destruct k; simpl; auto; inversion H; subst; auto.
Qed.

(* code that runs one piece after the other extends the registers by both extensions *)
Lemma exec_seq : forall c1 c2 regs e1 e2,
  exec c1 regs = regs ++ e1 -> exec c2 (regs ++ e1) = (regs ++ e1) ++ e2 ->
  exec (c1 ++ c2) regs = regs ++ e1 ++ e2.
Proof. intros c1 c2 regs e1 e2 H1 H2. rewrite exec_app, H1, H2. symmetry. apply app_assoc. Qed.

(* one more instruction after code that extends regs by ext: its result is the next register, and is
   what the instruction computes from the registers so far *)
Lemma exec_emit : forall c i regs ext, exec c regs = regs ++ ext -> length ext = length c ->
  exec (c ++ [i]) regs = regs ++ ext ++ [step (regs ++ ext) i] /\
  length (ext ++ [step (regs ++ ext) i]) = length (c ++ [i]) /\
  ok_opnd (regs ++ ext ++ [step (regs ++ ext) i]) (OR (length regs + length c)) /\
  opval (regs ++ ext ++ [step (regs ++ ext) i]) (OR (length regs + length c)) = step (regs ++ ext) i.
Proof.
  intros c i regs ext He Hl.
  split; [ apply exec_seq; [ exact He | reflexivity ] | ].
  split; [ rewrite !app_length, Hl; reflexivity | ].
  split; [ cbn [ok_opnd]; rewrite !app_length; simpl; lia | ].
  rewrite app_assoc, <- Hl, <- app_length. apply opval_last.
Qed.

(* the invariant of one flatten call *)
Definition flat_ok (refs : list (@opnd F)) (e : @lexp F) : Prop :=
  forall regs, Forall (ok_opnd regs) refs ->
    let (c, o) := flatten refs e (length regs) in
    exists ext, exec c regs = regs ++ ext /\ length ext = length c /\
                ok_opnd (regs ++ ext) o /\
                opval (regs ++ ext) o = xeval (map (opval regs) refs) e.

(* flat_ok is closed under an instruction with one operand: e flattens to the code of a followed by
   (mk operand-of-a), and denotes g (value of a) *)
Lemma flat_un : forall refs a e (mk : @opnd F -> @instr F) (g : option (@val F) -> option (@val F)),
  flat_ok refs a ->
  (forall regs o, step regs (mk o) = g (opval regs o)) ->
  (forall n, flatten refs e n = let (ca, oa) := flatten refs a n in (ca ++ [mk oa], OR (n + length ca))) ->
  (forall args, xeval args e = g (xeval args a)) ->
  flat_ok refs e.
Proof.
  intros refs a e mk g Ha Hstep Hfl Hx regs Hrefs. rewrite Hfl, Hx.
  specialize (Ha regs Hrefs). destruct (flatten refs a (length regs)) as [ca oa].
  destruct Ha as [ext [He [Hl [Hok Hv]]]].
  destruct (exec_emit ca (mk oa) regs ext He Hl) as [He' [Hl' [Hok' Hv']]].
  eexists. split; [ exact He' | ]. split; [ exact Hl' | ]. split; [ exact Hok' | ].
  rewrite Hv', Hstep, Hv. reflexivity.
Qed.

(* ... and with two operands: b is flattened after a, so its code runs on the registers a's code leaves,
   where the operand of a still has its value (opval_app) *)
Lemma flat_bin : forall refs a b e (mk : @opnd F -> @opnd F -> @instr F)
                        (g : option (@val F) -> option (@val F) -> option (@val F)),
  flat_ok refs a -> flat_ok refs b ->
  (forall regs oa ob, step regs (mk oa ob) = g (opval regs oa) (opval regs ob)) ->
  (forall n, flatten refs e n = let (ca, oa) := flatten refs a n in
                                let (cb, ob) := flatten refs b (n + length ca) in
                                (ca ++ cb ++ [mk oa ob], OR (n + length ca + length cb))) ->
  (forall args, xeval args e = g (xeval args a) (xeval args b)) ->
  flat_ok refs e.
Proof.
  intros refs a b e mk g Ha Hb Hstep Hfl Hx regs Hrefs. rewrite Hfl, Hx.
  specialize (Ha regs Hrefs). destruct (flatten refs a (length regs)) as [ca oa].
  destruct Ha as [e1 [He1 [Hl1 [Hok1 Hv1]]]].
  specialize (Hb (regs ++ e1) (Forall_ok_app _ _ _ Hrefs)).
  rewrite app_length, Hl1 in Hb.
  destruct (flatten refs b (length regs + length ca)) as [cb ob].
  destruct Hb as [e2 [He2 [Hl2 [Hok2 Hv2]]]].
  rewrite (map_opval_app regs e1 refs Hrefs) in Hv2.
  pose proof (exec_seq ca cb regs e1 e2 He1 He2) as He.
  assert (Hl : length (e1 ++ e2) = length (ca ++ cb)) by (rewrite !app_length, Hl1, Hl2; reflexivity).
  destruct (exec_emit (ca ++ cb) (mk oa ob) regs (e1 ++ e2) He Hl) as [He' [Hl' [Hok' Hv']]].
  rewrite app_length, Nat.add_assoc in Hok', Hv'. rewrite <- (app_assoc ca cb) in He', Hl'.
  eexists. split; [ exact He' | ]. split; [ exact Hl' | ]. split; [ exact Hok' | ].
  rewrite Hv', Hstep, app_assoc, Hv2, (opval_app (regs ++ e1) e2 oa Hok1), Hv1. reflexivity.
Qed.

Theorem flatten_correct : forall refs e, flat_ok refs e.
Proof.
  intros refs e. induction e.
  - (* XConst *) intros regs Hrefs. simpl. exists []. rewrite app_nil_r. repeat split; auto.
  - (* XIn *) intros regs Hrefs. simpl. exists []. rewrite app_nil_r. repeat split; auto.
  - (* XRef *) intros regs Hrefs. simpl. exists []. rewrite app_nil_r. split; [ reflexivity | ]. split; [ reflexivity | ].
    split; [ apply ok_nth_refs; auto | apply nth_refs ].
  - (* XFAdd *) apply (flat_bin refs e1 e2 _ IFAdd (ap2 (op_fadd A))); auto; reflexivity.
  - (* XFMul *) apply (flat_bin refs e1 e2 _ IFMul (ap2 (op_fmul A))); auto; reflexivity.
  - (* XSquare *) apply (flat_un refs e _ (fun o => IFMul o o) (fun v => ap2 (op_fmul A) v v)); auto; reflexivity.
  - (* XCall1 *) apply (flat_un refs e _ (ICall1 f) (ap1 (op_call1 A f))); auto; reflexivity.
  - (* XCall2 *) apply (flat_bin refs e1 e2 _ (ICall2 f) (ap2 (op_call2 A f))); auto; reflexivity.
  - (* XPowi *) apply (flat_un refs e _ (fun o => IPowi o k) (ap1 (fun x => op_powi A x k))); auto; reflexivity.
  - (* XCmp *) apply (flat_bin refs e1 e2 _ (ICmp p) (apcmp A p)); auto; reflexivity.
  - (* XBit *) apply (flat_bin refs e1 e2 _ (IBit o) (apbit o)); auto; reflexivity.
  - (* XNot *) apply (flat_un refs e _ INot apnot); auto; reflexivity.
  - (* XU2F *) apply (flat_un refs e _ IU2F (apu2f A)); auto; reflexivity.
  - (* XSelect: the one instruction with three operands, flattened one after the other *)
    intros regs Hrefs. cbn [LlvmModel.flatten].
    specialize (IHe1 regs Hrefs). destruct (flatten refs e1 (length regs)) as [cc oc].
    destruct IHe1 as [x1 [He1 [Hl1 [Hok1 Hv1]]]].
    specialize (IHe2 (regs ++ x1) (Forall_ok_app _ _ _ Hrefs)). rewrite app_length, Hl1 in IHe2.
    destruct (flatten refs e2 (length regs + length cc)) as [ca oa].
    destruct IHe2 as [x2 [He2 [Hl2 [Hok2 Hv2]]]].
    rewrite (map_opval_app regs x1 refs Hrefs) in Hv2.
    specialize (IHe3 ((regs ++ x1) ++ x2) (Forall_ok_app _ _ _ (Forall_ok_app _ _ _ Hrefs))).
    rewrite !app_length, Hl1, Hl2 in IHe3.
    destruct (flatten refs e3 (length regs + length cc + length ca)) as [cb ob].
    destruct IHe3 as [x3 [He3 [Hl3 [Hok3 Hv3]]]].
    rewrite (map_opval_app (regs ++ x1) x2 refs (Forall_ok_app _ _ _ Hrefs)) in Hv3.
    rewrite (map_opval_app regs x1 refs Hrefs) in Hv3.
    pose proof (exec_seq ca cb (regs ++ x1) x2 x3 He2 He3) as He23.
    pose proof (exec_seq cc (ca ++ cb) regs x1 (x2 ++ x3) He1 He23) as He.
    assert (Hl : length (x1 ++ x2 ++ x3) = length (cc ++ ca ++ cb)) by (rewrite !app_length, Hl1, Hl2, Hl3; reflexivity).
    destruct (exec_emit (cc ++ ca ++ cb) (ISelect oc oa ob) regs (x1 ++ x2 ++ x3) He Hl) as [He' [Hl' [Hok' Hv']]].
    rewrite !app_length, !Nat.add_assoc in Hok', Hv'. rewrite (app_assoc ca cb), (app_assoc cc).
    eexists. split; [ exact He' | ]. split; [ exact Hl' | ]. split; [ exact Hok' | ].
    rewrite Hv'. unfold LlvmModel.step. cbn [LlvmModel.xeval].
    rewrite (app_assoc regs x1), (app_assoc (regs ++ x1) x2), Hv3.
    rewrite (opval_app ((regs ++ x1) ++ x2) x3 oa Hok2), Hv2.
    rewrite (opval_app ((regs ++ x1) ++ x2) x3 oc (ok_opnd_app _ _ _ Hok1)).
    rewrite (opval_app (regs ++ x1) x2 oc Hok1), Hv1.
    reflexivity.
Qed.

Lemma flatten_list_correct : forall refs es regs, Forall (ok_opnd regs) refs ->
  let (c, os) := flatten_list refs es (length regs) in
  exists ext, exec c regs = regs ++ ext /\ length ext = length c /\
              map (opval (regs ++ ext)) os = map (xeval (map (opval regs) refs)) es.
Proof.
  intros refs es. induction es as [ | e es IH ]; intros regs Hrefs.
  - simpl. exists []. rewrite app_nil_r. auto.
  - cbn [flatten_list].
    pose proof (flatten_correct refs e regs Hrefs) as He.
    destruct (flatten refs e (length regs)) as [c o].
    destruct He as [x1 [He1 [Hl1 [Hok1 Hv1]]]].
    specialize (IH (regs ++ x1) (Forall_ok_app _ _ _ Hrefs)). rewrite app_length, Hl1 in IH.
    destruct (flatten_list refs es (length regs + length c)) as [cr os].
    destruct IH as [x2 [He2 [Hl2 Hv2]]].
    rewrite (map_opval_app regs x1 refs Hrefs) in Hv2.
    exists (x1 ++ x2). split; [ exact (exec_seq _ _ _ _ _ He1 He2) | ]. split; [ rewrite !app_length; lia | ].
    cbn [map]. rewrite app_assoc, (opval_app (regs ++ x1) x2 o Hok1), Hv1, Hv2. reflexivity.
Qed.

Lemma flatten_reps_correct : forall es refs regs, Forall (ok_opnd regs) refs ->
  let (c, refs') := flatten_reps refs es (length regs) in
  exists ext, exec c regs = regs ++ ext /\ length ext = length c /\
              Forall (ok_opnd (regs ++ ext)) refs' /\
              map (opval (regs ++ ext)) refs' = reps_values A inp (map (opval regs) refs) es.
Proof.
  induction es as [ | e es IH ]; intros refs regs Hrefs.
  - simpl. exists []. rewrite app_nil_r. auto.
  - cbn [flatten_reps reps_values].
    pose proof (flatten_correct refs e regs Hrefs) as He.
    destruct (flatten refs e (length regs)) as [c o].
    destruct He as [x1 [He1 [Hl1 [Hok1 Hv1]]]].
    assert (Hrefs' : Forall (ok_opnd (regs ++ x1)) (refs ++ [o])).
    { apply Forall_app. split; [ apply Forall_ok_app; auto | constructor; auto ]. }
    specialize (IH (refs ++ [o]) (regs ++ x1) Hrefs'). rewrite app_length, Hl1 in IH.
    destruct (flatten_reps (refs ++ [o]) es (length regs + length c)) as [cr refs''].
    destruct IH as [x2 [He2 [Hl2 [Hok2 Hv2]]]].
    exists (x1 ++ x2). split; [ exact (exec_seq _ _ _ _ _ He1 He2) | ]. split; [ rewrite !app_length; lia | ].
    rewrite app_assoc. split; [ exact Hok2 | ].
    rewrite Hv2. rewrite map_app. cbn [map]. rewrite Hv1.
    rewrite (map_opval_app regs x1 refs Hrefs). reflexivity.
Qed.

Theorem compile_trees_sound : forall reps outs,
  run_ssa A (compile_trees reps outs) inp = trees_value A inp reps outs.
Proof.
  intros reps outs. unfold compile_trees, run_ssa, trees_value.
  pose proof (flatten_reps_correct reps [] [] (Forall_nil _)) as H1. simpl length in H1.
  destruct (flatten_reps [] reps 0) as [c1 refs].
  destruct H1 as [x1 [He1 [Hl1 [Hok1 Hv1]]]]. simpl in He1, Hv1.
  pose proof (flatten_list_correct refs outs x1) as H2. rewrite Hl1 in H2.
  simpl in Hok1. specialize (H2 Hok1).
  destruct (flatten_list refs outs (length c1)) as [c2 os].
  destruct H2 as [x2 [He2 [Hl2 Hv2]]].
  cbn [p_code p_outs]. rewrite exec_app, He1, He2, Hv2. simpl in Hv1. rewrite Hv1. reflexivity.
Qed.

End PROOFS.

(* the statement used by the obligation file: LLVMVisitor::init followed by call computes, for every
   input vector, the values of the operation trees of the outputs (with symbolic CSE: of the reduced
   outputs over the shared replacement values) *)
Theorem compile_sound :
  forall (F : Type) (A : lalg F) vtbl tbl rw inputs outputs c p reps outs (inp : list F),
    lower_init A vtbl tbl rw inputs outputs c = Ok (reps, outs) ->
    compile_prog A vtbl tbl rw inputs outputs c = Ok p ->
    run_ssa A p inp = trees_value A inp reps outs.
Proof.
  intros F A vtbl tbl rw inputs outputs c p reps outs inp Hl Hc.
  unfold compile_prog in Hc. rewrite Hl in Hc. simpl in Hc. inversion Hc; subst.
  apply compile_trees_sound.
Qed.
