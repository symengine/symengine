(* C14 -- theorems about the GENERATED table llvm_rules (LLVMDoubleVisitor):
   llvm_agree            : class by class the rule is the rule of the double evaluators (the table of
       eval_double, visitor_rules, or of LambdaRealDoubleVisitor, lambda_rules -- C12/C13 relate those
       two), after reading the emitted instructions as the formula language of the EVAL slice
       (fadd = +, fcmp oeq = ==, llvm.maxnum = max, uitofp = identity on 0/1, ...);
   llvm_pow_ideal        : the case split of Pow (exp, exp2, x*x, powi, pow) computes the real power. *)
From Coq Require Import Reals Lra Lia ZArith NArith List Bool.
From SE Require Import Gen.TypeCodes Eval.EvalModel Eval.EvalIdeal Eval.EvalSpec Eval.Gen_EvalRules Eval.Gen_LambdaRules
  Eval.TableProofs C14.LlvmTerm C14.Gen_LlvmRules.
Import ListNotations.

Definition bits_two : N := 4611686018427387904.          (* 0x4000000000000000 *)

Definition cmp_bfun (p : pred) : bfun := match p with OEQ => BEq | ONE => BNe | OLE => BLe | OLT => BLt | UNE => BNe end.
Definition bit_bfun (o : lbit) : bfun := match o with BitAnd => BAndB | BitOr => BOrB | BitXor => BXorB end.

(* the formula a term denotes; expo = the position of the exponent among the arguments (TPowi);
   `fcmp one a, 0.0` under not / and / or / xor is the truth value bool(a) those operators take *)
Fixpoint tlower (t : lterm) (expo : nat) : fterm :=
  let truth (a : lterm) : fterm :=
    match a with
    | TCmp ONE x (TLit L0) => tlower x expo
    | _ => tlower a expo
    end in
  match t with
  | TArg i => FArg i
  | TLit l => FLit l
  | TFAdd a b => FBin BAdd (tlower a expo) (tlower b expo)
  | TFMul a b => FBin BMul (tlower a expo) (tlower b expo)
  | TSquare a => FBin BMul (tlower a expo) (tlower a expo)
  | TCall1 (LF _ u) a => FUn u (tlower a expo)
  | TCall1 LFExp2 a => FBin BPow (FLit (LBits bits_two)) (tlower a expo)
  | TCall2 (LF2 _ b) x y => FBin b (tlower x expo) (tlower y expo)
  | TCall2 LMaxNum x y => FBin BMax (tlower x expo) (tlower y expo)
  | TCall2 LMinNum x y => FBin BMin (tlower x expo) (tlower y expo)
  | TPowi a => FBin BPow (tlower a expo) (FArg expo)
  | TCmp p a b => FBin (cmp_bfun p) (tlower a expo) (tlower b expo)
  | TBit o a b => FBin (bit_bfun o) (truth a) (truth b)
  | TNot a => FUn UNotB (truth a)
  | TU2F a => tlower a expo
  end.

(* exchange FArg 0 and FArg 1 (Pow: the E case of the double tables is written over [exponent]) *)
Fixpoint arg1_to_0 (t : fterm) : fterm :=
  match t with
  | FArg 1 => FArg 0
  | FArg i => FArg i
  | FLit l => FLit l
  | FUn f a => FUn f (arg1_to_0 a)
  | FBin f a b => FBin f (arg1_to_0 a) (arg1_to_0 b)
  | FIf c a b => FIf (arg1_to_0 c) (arg1_to_0 a) (arg1_to_0 b)
  end.

Definition sign_formula : fterm :=
  FIf (FBin BEq (FArg 0) (FLit L0)) (FLit L0) (FIf (FBin BLt (FArg 0) (FLit L0)) (FLit LM1) (FLit L1)).

Definition llower_rule (r : lrule) : rule :=
  match r with
  | LRLeafInt => RLeafInt
  | LRLeafRat => RLeafRat
  | LRLeafDbl => RLeafDbl
  | LRFormula sel t => RFormula sel (tlower t 1)
  | LRAdd _ _ _ => RFoldDict BAdd BMul false None
  | LRFoldArgs None _ => RFoldArgs L1 BMul
  | LRFoldArgs (Some LMaxNum) _ => RFoldFirst BMax 1
  | LRFoldArgs (Some LMinNum) _ => RFoldFirst BMin 1
  | LRFoldArgs (Some (LF2 _ b)) _ => RFoldFirst b 1
  | LRLogic o => RBoolFold (bit_bfun o) 1
  | LRPow ecase _ _ _ gen _ => RPow true (arg1_to_0 (tlower ecase 1)) (tlower gen 1)
  | LRPiecewise => RPiecewise true
  | LRSign => RFormula [0%nat] sign_formula
  | LRContains => RContains
  | LRInfty => RInfty
  | LRNaN => RNaN
  | LRBoolAtom => RBoolAtom
  | LRSymbol mf => RSymbol mf
  | LRConstant => RConstViaEval
  | LRPass => RPass
  | LRRewrite t => RFormula [0%nat] t
  | LRThrow c => RThrow c
  end.

(* equal rules up to: which argument a fold starts from, the order in which the symbol tables are
   searched, a constant evaluated at compile time instead of by its closed formula *)
Definition lrule_agree (a b : rule) : bool :=
  rule_eqb a b ||
  match a, b with
  | RFoldFirst o1 _, RFoldFirst o2 _ => bfun_eqb o1 o2
  | RBoolFold o1 _, RBoolFold o2 _ => bfun_eqb o1 o2
  | RSymbol _, RSymbol _ => true
  | RConstants _, RConstViaEval => true
  | _, _ => false
  end.

Definition lrule_at (c : N) : lrule :=
  match lookup_lrule llvm_rules c with Some r => r | None => LRThrow EXN_NOTIMPL end.
Definition is_lthrow (r : lrule) : bool := match r with LRThrow _ => true | _ => false end.
Definition lall_codes : list N := map fst llvm_rules.

Definition agree_visitor (c : N) : bool := lrule_agree (rule_at visitor_rules c) (llower_rule (lrule_at c)).
Definition agree_lambda (c : N) : bool := lrule_agree (rule_at lambda_rules c) (llower_rule (lrule_at c)).

(* every class LLVMDoubleVisitor accepts is evaluated by the rule of eval_double or of the lambda visitor *)
Theorem llvm_agree :
  forallb (fun c => is_lthrow (lrule_at c) || agree_visitor c || agree_lambda c) lall_codes = true.
Proof. vm_compute. reflexivity. Qed.

Theorem llvm_accepts :
  filter (fun c => negb (is_lthrow (lrule_at c))) lall_codes
  = [TC_Integer; TC_Rational; TC_RealDouble; TC_Infty; TC_NaN; TC_Symbol; TC_Dummy; TC_Mul; TC_Add; TC_Pow; TC_Log; TC_Constant;
     TC_Sign; TC_Floor; TC_Ceiling] ++
    [TC_Sin; TC_Cos; TC_Tan; TC_Cot; TC_Csc; TC_Sec; TC_ASin; TC_ACos; TC_ASec; TC_ACsc; TC_ATan; TC_ACot; TC_ATan2;
     TC_Sinh; TC_Csch; TC_Cosh; TC_Sech; TC_Tanh; TC_Coth; TC_ASinh; TC_ACsch; TC_ACosh; TC_ATanh; TC_ACoth; TC_ASech] ++
    [TC_Erf; TC_Erfc; TC_Gamma; TC_LogGamma; TC_Abs; TC_Max; TC_Min; TC_Piecewise; TC_Contains; TC_BooleanAtom; TC_Not; TC_And; TC_Or;
     TC_Xor; TC_Equality; TC_Unequality; TC_LessThan; TC_StrictLessThan; TC_Truncate; TC_UnevaluatedExpr].
Proof. vm_compute. reflexivity. Qed.

(* the classes that agree with the lambda table only (Add: dictionary fold; Symbol, Sign, ...: eval_double has no rule) and
   with the eval_double table only (Mul: fold over get_args) *)
Theorem llvm_agree_lambda_only :
  filter (fun c => negb (is_lthrow (lrule_at c)) && negb (agree_visitor c)) lall_codes
  = [TC_Infty; TC_NaN; TC_Symbol; TC_Dummy; TC_Add; TC_Sign; TC_Floor; TC_Ceiling; TC_Contains; TC_Not; TC_And; TC_Or; TC_Xor; TC_Truncate].
Proof. vm_compute. reflexivity. Qed.

Theorem llvm_agree_visitor_only :
  filter (fun c => negb (is_lthrow (lrule_at c)) && negb (agree_lambda c)) lall_codes = [TC_Mul].
Proof. vm_compute. reflexivity. Qed.

(* classes the lambda visitor accepts and LLVMDoubleVisitor does not / the converse *)
Theorem llvm_lacks :
  filter (fun c => is_lthrow (lrule_at c) && negb (is_throw (rule_at lambda_rules c))) lall_codes = [].
Proof. vm_compute. reflexivity. Qed.
Theorem llvm_extra :
  filter (fun c => negb (is_lthrow (lrule_at c)) && is_throw (rule_at lambda_rules c)) lall_codes = [].
Proof. vm_compute. reflexivity. Qed.

Local Open Scope R_scope.

Lemma square_Rpower : forall b, 0 < b -> b * b = Rpower b 2.
Proof.
  intros b Hb. replace 2 with (INR 2) by (simpl; lra). rewrite Rpower_pow by auto. simpl. lra.
Qed.

(* the five cases of bvisit(const Pow &) and what each computes over the reals (exp2 x := 2^x, powi x k := x^k,
   square x := x * x): all are the real power base^exponent *)
Theorem llvm_pow_ideal :
  (match lookup_lrule llvm_rules TC_Pow with
   | Some (LRPow ecase twocase sqcase icase gen _) =>
       ecase = TCall1 (LF true UExp) (TArg 1) /\ twocase = TCall1 LFExp2 (TArg 1) /\ sqcase = TSquare (TArg 0) /\
       icase = TPowi (TArg 0) /\ gen = TCall2 (LF2 true BPow) (TArg 0) (TArg 1)
   | _ => False
   end) /\
  (forall x, Rpower (exp 1) x = exp x) /\
  (forall b, 0 < b -> b * b = Rpower b 2) /\
  (forall b k, 0 < b -> powerRZ b k = Rpower b (IZR k)).
Proof.
  split; [ vm_compute; repeat split | ].
  split; [ exact Rpower_exp1 | ].
  split; [ exact square_Rpower | exact powerRZ_Rpower ].
Qed.
