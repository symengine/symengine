(* C16 obligation: the same for every well-formed sum (canonical numbers, no NaN double, keys
   pairwise not eq): the order hypotheses follow from the C02 theorems about compare. *)
From SE Require Import Expr.Wf Parse.PrintModel Parse.PrintProofs.
From Coq Require Import Permutation.
Theorem C16_print_add_perm_wf : forall c d d',
  Permutation d d' -> wf (EAdd c d) = true -> print (EAdd c d) = print (EAdd c d').
Proof. exact print_add_perm_wf. Qed.
Print Assumptions C16_print_add_perm_wf.
