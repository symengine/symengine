(* C16 obligation (parse_print, PARTIAL): for every expression built from identifier-named symbols
   and non-negative integers by Pow alone, the bytes of str(e) lex and parse -- with the reference
   lexer and parser of C17, for either setting of convert_xor -- to the tree that mirrors e:
   the printer's parenthesizeLE rule for base and exponent is what the right-associative power
   operator of the grammar needs.
   FULL STATEMENT (not proved; covered by the correspondence runs of the check only):
     forall e, wf e -> in_fragment e -> parse_syntax (print e) = TopOk (syn e)
   for sums, products, quotients, functions, relationals and booleans as well. *)
From SE Require Import Parse.ParseModel Parse.PrintModel Parse.PrintParse.
Theorem C16_parse_print_partial : forall e conv,
  powfrag e -> parse_syntax (print e) conv = TopOk (syn e).
Proof. exact parse_print_powers. Qed.
Print Assumptions C16_parse_print_partial.
