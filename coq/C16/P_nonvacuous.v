(* C16: the hypotheses are satisfiable by a non-trivial sum, the printed string is the expected
   one, and the reference parser reads printed strings back (examples). *)
From SE Require Import Expr.Wf Parse.ParseModel Parse.PrintModel Parse.PrintProofs.
Local Open Scope N_scope.
Definition sx := ESym (b "x").
Definition sy := ESym (b "y").
(* -1/2 + 3*y - sin(x)/y + x**2, dictionary in two different orders *)
Definition d1 : list (expr * number) :=
  [(EPow sx (ENum (NInt 2)), NInt 1); (sy, NInt 3);
   (EMul (NInt 1) [(EF1 TC_Sin sx, ENum (NInt 1)); (sy, ENum (NInt (-1)))], NInt (-1))].
Definition d2 : list (expr * number) := rev d1.
Example C16_nonvacuous_wf : wf (EAdd (NRat (-1) 2) d1) = true /\ wf (EAdd (NRat (-1) 2) d2) = true.
Proof. vm_compute. split; reflexivity. Qed.
Example C16_nonvacuous_string :
  print (EAdd (NRat (-1) 2) d1) = b "-1/2 + 3*y - sin(x)/y + x**2" /\
  print (EAdd (NRat (-1) 2) d2) = b "-1/2 + 3*y - sin(x)/y + x**2".
Proof. vm_compute. split; reflexivity. Qed.
Example C16_nonvacuous_roundtrip :
  parse_ref (print (EAdd (NRat (-1) 2) d1)) true =
  OutValue (RApp (b "add")
    [RApp (b "sub") [RApp (b "add") [RApp (b "div") [RApp (b "neg") [RInt 1]; RInt 2];
                                     RApp (b "mul") [RInt 3; RSym (b "y")]];
                     RApp (b "div") [RApp (b "sin") [RSym (b "x")]; RSym (b "y")]];
     RApp (b "pow") [RSym (b "x"); RInt 2]]).
Proof. vm_compute. reflexivity. Qed.
Example C16_nonvacuous_double :
  print (ENum (NDbl 4591870180066957722)) = b "0.1" /\
  print (ENum (NDbl 4906019910204099648)) = b "1e+20" /\
  print (ENum (NDbl 4607182418800017409)) = b "1.0".
Proof. vm_compute. repeat split; reflexivity. Qed.
(* the fragment of the partial parse_print theorem contains nested powers that need parentheses *)
From SE Require Import Parse.PrintParse.
Definition pw_ex : expr :=
  EPow (EPow (EPow sx sy) (ENum (NInt (Z.of_N 2)))) (EPow (ESym (b "z_1")) (ENum (NInt (Z.of_N 30)))).
Example C16_nonvacuous_powfrag :
  powfrag pw_ex /\ print pw_ex = b "((x**y)**2)**(z_1**30)" /\
  parse_syntax (print pw_ex) true =
    TopOk (PBin BPow (PBin BPow (PBin BPow (PIdent (b "x")) (PIdent (b "y"))) (PNum (b "2")))
                     (PBin BPow (PIdent (b "z_1")) (PNum (b "30")))).
Proof.
  split; [|split; vm_compute; reflexivity].
  repeat (apply PF_pow || apply PF_nat || (apply PF_sym; reflexivity)).
Qed.
