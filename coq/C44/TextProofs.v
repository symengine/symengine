(* C44 -- the characters of the number texts: whatever character class contains the digits and
   the bytes of "-+.e", "inf", "nan" contains every byte of dec_Z / dec_N / print_double.  Used for
   "XML character data", "no TeX group character" and "ASCII". *)
From Coq Require Import List Bool NArith ZArith Lia.
Import ListNotations.
From SE Require Import C44.PrintBase.
Local Open Scope N_scope.

Lemma forallb_firstn : forall {A} (p : A -> bool) k l, forallb p l = true -> forallb p (firstn k l) = true.
Proof.
  induction k; destruct l; simpl; intros; auto.
  apply andb_prop in H. destruct H as [H1 H2]. rewrite H1. simpl. apply IHk. exact H2.
Qed.
Lemma forallb_skipn : forall {A} (p : A -> bool) k l, forallb p l = true -> forallb p (skipn k l) = true.
Proof.
  induction k; destruct l; simpl; intros; auto.
  apply andb_prop in H. destruct H as [_ H2]. apply IHk. exact H2.
Qed.
Lemma forallb_tl : forall {A} (p : A -> bool) l, forallb p l = true -> forallb p (tl l) = true.
Proof. destruct l; simpl; intros; auto. apply andb_prop in H. apply H. Qed.
Lemma forallb_rev : forall {A} (p : A -> bool) l, forallb p l = true -> forallb p (rev l) = true.
Proof.
  intros A p l H. rewrite forallb_forall in *. intros x Hx. apply H. apply in_rev. exact Hx.
Qed.
Lemma forallb_repeat : forall {A} (p : A -> bool) x n, p x = true -> forallb p (repeat x n) = true.
Proof. induction n; simpl; intros; auto. rewrite H. simpl. auto. Qed.
Lemma forallb_removelast : forall {A} (p : A -> bool) l, forallb p l = true -> forallb p (removelast l) = true.
Proof.
  induction l as [|a l IH]; simpl; intros; auto.
  apply andb_prop in H. destruct H as [H1 H2]. destruct l; simpl; auto.
  rewrite H1. simpl. apply IH. exact H2.
Qed.
Lemma forallb_map_const : forall {A B} (p : B -> bool) (f : A -> B) l,
  (forall x, p (f x) = true) -> forallb p (List.map f l) = true.
Proof. induction l; simpl; intros; auto. rewrite H. simpl. auto. Qed.

(* a match on a byte literal is a test with N.eqb (the match is a tree over the bits) *)
Lemma match_45 : forall {T} (c : N) (A B : T), match c with 45 => A | _ => B end = if c =? 45 then A else B.
Proof. intros T c A B. destruct c as [|q]; [reflexivity|]. do 6 (destruct q as [q|q|]; try reflexivity). Qed.
Lemma match_48 : forall {T} (c : N) (A B : T), match c with 48 => A | _ => B end = if c =? 48 then A else B.
Proof. intros T c A B. destruct c as [|q]; [reflexivity|]. do 6 (destruct q as [q|q|]; try reflexivity). Qed.
Lemma match_95 : forall {T} (c : N) (A B : T), match c with 95 => A | _ => B end = if c =? 95 then A else B.
Proof. intros T c A B. destruct c as [|q]; [reflexivity|]. do 7 (destruct q as [q|q|]; try reflexivity). Qed.

Lemma digit_neq : forall c k, 48 <= c -> c <= 57 -> k < 48 \/ 57 < k -> c =? k = false.
Proof. intros c k H1 H2 Hk. apply N.eqb_neq. lia. Qed.

Lemma digits_aux_lt : forall f n acc,
  Forall (fun d => d < 10) acc -> Forall (fun d => d < 10) (digits_aux f n acc).
Proof.
  induction f; simpl; intros n acc H; auto.
  destruct (n <? 10) eqn:E.
  - constructor; [apply N.ltb_lt; exact E | exact H].
  - apply IHf. constructor; [apply N.mod_lt; lia | exact H].
Qed.
Lemma digits_of_N_lt : forall n, Forall (fun d => d < 10) (digits_of_N n).
Proof. intro n. unfold digits_of_N. apply digits_aux_lt. constructor. Qed.

Section Chars.
  Variable p : N -> bool.
  Hypothesis Hdigit : forall c, 48 <= c -> c <= 57 -> p c = true.

  Lemma chars_dec_N : forall n, forallb p (dec_N n) = true.
  Proof.
    intro n. unfold dec_N. rewrite forallb_forall. intros c Hc.
    apply in_map_iff in Hc. destruct Hc as (d & E & Hd). subst.
    pose proof (digits_of_N_lt n) as F. rewrite Forall_forall in F. specialize (F d Hd).
    apply Hdigit; lia.
  Qed.

  Hypothesis Hminus : p 45 = true.

  Lemma chars_dec_Z : forall z, forallb p (dec_Z z) = true.
  Proof.
    destruct z; simpl.
    - rewrite Hdigit by lia. reflexivity.
    - apply chars_dec_N.
    - rewrite Hminus. simpl. apply chars_dec_N.
  Qed.

  Hypothesis Hdot : p 46 = true.
  Hypothesis He : p 101 = true.
  Hypothesis Hplus : p 43 = true.
  Hypothesis Hi : p 105 = true.
  Hypothesis Hn : p 110 = true.
  Hypothesis Hf : p 102 = true.
  Hypothesis Ha : p 97 = true.

  Lemma chars_strip_rev : forall l, forallb p l = true -> forallb p (strip_trailing_zeros_rev l) = true.
  Proof.
    induction l as [|c l IH]; intros H; [reflexivity|]. cbn [strip_trailing_zeros_rev]. rewrite match_48.
    destruct (c =? 48); [|exact H]. apply IH, (forallb_tl _ (c :: l)), H.
  Qed.
  Lemma chars_strip : forall l, forallb p l = true -> forallb p (strip_trailing_zeros l) = true.
  Proof.
    intros l H. unfold strip_trailing_zeros. apply forallb_rev. apply chars_strip_rev.
    apply forallb_rev. exact H.
  Qed.

  Lemma chars_two_digits : forall n, forallb p (two_digits n) = true.
  Proof.
    intro n. unfold two_digits. destruct (n <? 10) eqn:E.
    - apply N.ltb_lt in E. simpl. rewrite !Hdigit by lia. reflexivity.
    - apply chars_dec_N.
  Qed.

  Lemma chars_frac : forall frac, forallb p frac = true ->
    forallb p (match frac with [] => [] | _ => 46 :: frac end) = true.
  Proof. destruct frac; simpl; intros; auto. rewrite Hdot. simpl. exact H. Qed.

  Lemma chars_fmt_g15 : forall num den, forallb p (fmt_g15 num den) = true.
  Proof.
    intros num den. unfold fmt_g15. destruct (sig15 num den) as [d x].
    pose proof (chars_dec_N (Z.to_N d)) as Hds.
    destruct ((x <? -4)%Z || (15 <=? x)%Z).
    - rewrite !forallb_app. rewrite forallb_firstn by exact Hds.
      rewrite chars_frac by (apply chars_strip, forallb_tl; exact Hds).
      simpl. rewrite He. simpl.
      destruct (x <? 0)%Z; simpl; rewrite ?Hminus, ?Hplus; simpl; apply chars_two_digits.
    - destruct (0 <=? x)%Z.
      + rewrite forallb_app. rewrite forallb_firstn by exact Hds.
        rewrite chars_frac by (apply chars_strip, forallb_skipn; exact Hds). reflexivity.
      + rewrite !forallb_app. simpl. rewrite Hdot, (Hdigit 48) by lia. simpl.
        rewrite forallb_repeat by (apply Hdigit; lia). simpl.
        apply chars_strip. exact Hds.
  Qed.

  Lemma chars_fmt_double : forall b, forallb p (fmt_double b) = true.
  Proof.
    intro b. unfold fmt_double.
    assert (Hs : forallb p (if dbl_sign b then [45] else []) = true).
    { destruct (dbl_sign b); simpl; rewrite ?Hminus; reflexivity. }
    destruct (dbl_expfield b =? 2047).
    - rewrite forallb_app, Hs. simpl. destruct (dbl_mant b =? 0); unfold s_inf, s_nan; simpl;
        rewrite ?Hi, ?Hn, ?Hf, ?Ha; reflexivity.
    - destruct ((dbl_expfield b =? 0) && (dbl_mant b =? 0)).
      + rewrite forallb_app, Hs. simpl. rewrite Hdigit by lia. reflexivity.
      + match goal with |- forallb p (let '(num, den) := ?X in _) = true => destruct X as [num den] end.
        rewrite forallb_app, Hs. simpl. apply chars_fmt_g15.
  Qed.

  Lemma chars_print_double : forall b, forallb p (print_double b) = true.
  Proof.
    intro b. unfold print_double. pose proof (chars_fmt_double b) as H.
    destruct (existsb _ (fmt_double b)); [exact H|].
    destruct (Nat.eqb _ 15); rewrite forallb_app, H; simpl; rewrite Hdot, ?Hdigit by lia; reflexivity.
  Qed.
End Chars.
