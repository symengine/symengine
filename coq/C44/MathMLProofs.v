(* C44 -- MathML: the token stream of mathml(e) is one well-formed XML element. *)
From Coq Require Import List Bool NArith ZArith Lia.
Import ListNotations.
From SE Require Import C44.C44Spec C44.Results C44.TextProofs.
Local Open Scope N_scope.

Lemma xforest_app : forall a b, xforest a -> xforest b -> xforest (a ++ b).
Proof.
  intros a b Ha Hb. induction Ha; simpl.
  - exact Hb.
  - apply xf_text; assumption.
  - apply xf_ref; assumption.
  - apply xf_empty; assumption.
  - rewrite <- app_assoc. simpl. apply xf_elem; assumption.
Qed.

Lemma xelement_forest : forall l, xelement l -> xforest l.
Proof.
  intros l H. destruct H.
  - apply xf_empty; [assumption | constructor].
  - apply xf_elem; [assumption | assumption | assumption | constructor].
Qed.

Lemma xforest_concat : forall ls, Forall xforest ls -> xforest (concat ls).
Proof. exact (concat_closed xforest xf_nil xforest_app). Qed.

(* The text of a rule is written left to right: tags with printed sub-terms in between.
   [xrest st l]: inside the open elements st (innermost first), l is what is left of the text --
   the rest of each body and its closing tag. *)
Fixpoint xrest (st : list (list N)) (l : list xtok) : Prop :=
  match st with
  | [] => l = []
  | n :: st' => exists body r, l = body ++ XC n :: r /\ xforest body /\ xrest st' r
  end.

Lemma xrest_forest : forall h n st r, xforest h -> xrest (n :: st) r -> xrest (n :: st) (h ++ r).
Proof.
  intros h n st r Hh (body & r' & -> & Hb & Hr). exists (h ++ body), r'.
  split; [apply app_assoc|]. split; [apply xforest_app; assumption | exact Hr].
Qed.
Lemma xrest_empty : forall m n st r, xml_name_ok m = true -> xrest (n :: st) r -> xrest (n :: st) (XE m :: r).
Proof. intros m n st r Hm. exact (xrest_forest [XE m] n st r (xf_empty m [] Hm xf_nil)). Qed.
Lemma xrest_text : forall t n st r, xml_text_ok t = true -> xrest (n :: st) r -> xrest (n :: st) (XT t :: r).
Proof. intros t n st r Ht. exact (xrest_forest [XT t] n st r (xf_text t [] Ht xf_nil)). Qed.
Lemma xrest_close : forall n st r, xrest st r -> xrest (n :: st) (XC n :: r).
Proof. intros n st r H. exists [], r. split; [reflexivity|]. split; [constructor | exact H]. Qed.
Lemma xrest_open : forall m a n st r,
  xml_name_ok m = true -> xml_attr_ok a = true -> xrest (m :: n :: st) r -> xrest (n :: st) (XO m a :: r).
Proof.
  intros m a n st r Hm Ha (body & r1 & -> & Hb & body2 & r2 & -> & Hb2 & Hr).
  exists (XO m a :: body ++ XC m :: body2), r2. split; [cbn [app]; rewrite <- app_assoc; reflexivity|].
  split; [apply xf_elem; assumption | exact Hr].
Qed.
Lemma xelement_open : forall n a r,
  xml_name_ok n = true -> xml_attr_ok a = true -> xrest [n] r -> xelement (XO n a :: r).
Proof. intros n a r Hn Ha (body & r' & -> & Hb & Hr). cbn [xrest] in Hr. subst r'. apply xe_elem; assumption. Qed.

(* [xwalk] proves [xelement l] for the text l of a rule written out token by token: after the
   opening tag it reads l left to right with the [xrest] lemma of each token (an opening tag
   pushes its name, the matching closing tag pops it; an empty element, character data or a printed
   sub-term is passed over), and when the outermost element is closed nothing may be left.  Names,
   attributes and character data are literals or have their condition in the context, like the
   forests. *)
Ltac xside := first [reflexivity | assumption].
Ltac xwalk :=
  cbn [app]; apply xelement_open; [xside | xside |];
  repeat first [ apply xrest_close
               | apply xrest_open; [xside | xside |]
               | apply xrest_empty; [xside|]
               | apply xrest_text; [xside|]
               | apply xrest_forest; [solve [auto using xelement_forest]|] ];
  reflexivity.

Lemma x_app_elem : forall op body,
  xml_name_ok op = true -> xforest body -> xelement (x_app op body).
Proof. intros op body Hop Hb. unfold x_app. xwalk. Qed.

Lemma wrap_elem : forall n a body,
  xml_name_ok n = true -> xml_attr_ok a = true -> xforest body ->
  xelement ([XO n a] ++ body ++ [XC n]).
Proof. intros. xwalk. Qed.
Lemma wrap_forest : forall n a body,
  xml_name_ok n = true -> xml_attr_ok a = true -> xforest body ->
  xforest ([XO n a] ++ body ++ [XC n]).
Proof. intros. apply xelement_forest, wrap_elem; assumption. Qed.

Definition xchar (c : N) : bool := negb ((c =? 60) || (c =? 38)).

Lemma xchar_digit : forall c, 48 <= c -> c <= 57 -> xchar c = true.
Proof.
  intros c H1 H2. unfold xchar. rewrite (digit_neq c 60), (digit_neq c 38) by lia. reflexivity.
Qed.

Lemma text_dec_Z : forall z, xml_text_ok (dec_Z z) = true.
Proof. intro z. apply (chars_dec_Z xchar xchar_digit); reflexivity. Qed.
Lemma text_dec_N : forall n, xml_text_ok (dec_N n) = true.
Proof. intro n. apply (chars_dec_N xchar xchar_digit). Qed.
Lemma text_double : forall b, xml_text_ok (print_double b) = true.
Proof. intro b. apply (chars_print_double xchar xchar_digit); reflexivity. Qed.

Lemma xml_escape_forest : forall nm, xforest (xml_escape nm).
Proof.
  induction nm as [|c nm IH]; simpl.
  - constructor.
  - destruct (c =? 38) eqn:E1; [apply xf_ref; [reflexivity | exact IH]|].
    destruct (c =? 60) eqn:E2; [apply xf_ref; [reflexivity | exact IH]|].
    destruct (c =? 62) eqn:E3; [apply xf_ref; [reflexivity | exact IH]|].
    apply xf_text; [|exact IH]. unfold xml_text_ok. simpl. rewrite E2, E1. reflexivity.
Qed.

Lemma x_cn_elem : forall attr text,
  xml_attr_ok attr = true -> xml_text_ok text = true -> xelement (x_cn_of attr text).
Proof.
  intros attr text Ha Ht. unfold x_cn_of. xwalk.
Qed.

Lemma mm_real_elem : forall n, post True (mm_real n) xelement.
Proof.
  destruct n; cbn [mm_real post]; try exact I.
  - apply x_cn_elem; [reflexivity | apply text_dec_Z].
  - pose proof (text_dec_Z n). pose proof (text_dec_N (Npos d)). xwalk.
  - apply x_cn_elem; [reflexivity | apply text_double].
Qed.

Lemma mm_number_elem : forall n, post True (mm_number n) xelement.
Proof.
  assert (Hc : forall m, post True (match mm_real (cplx_re m), mm_real (cplx_im m) with
                         | Ok r, Ok i =>
                             Ok ([XO x_apply []; XO x_csymbol a_nums1; XT t_complex_cartesian; XC x_csymbol]
                                   ++ r ++ i ++ [XC x_apply])
                         | Ok _, e => e
                         | e, _ => e
                         end) xelement).
  { intro m. apply (post_bind True xelement); [apply mm_real_elem | intros r Hr].
    apply (post_bind True xelement); [apply mm_real_elem | intros i Hi]. cbn [post]. xwalk. }
  destruct n; first [apply Hc | apply mm_real_elem].
Qed.

Lemma mm_constant_elem : forall nm, post True (mm_constant nm) xelement.
Proof.
  intro nm. unfold mm_constant.
  repeat (apply post_if; [first [apply xe_empty | apply x_cn_elem]; reflexivity|]). exact I.
Qed.

Lemma mm_atom_elem : forall code, post True (mm_atom code) xelement.
Proof.
  intro code. unfold mm_atom.
  repeat (apply post_if; [apply xe_empty; reflexivity|]). exact I.
Qed.

Section Rec.
  Variable rec : expr -> res (list xtok).
  Hypothesis IH : forall e, mm_guard e = true -> post True (rec e) xelement.

  Lemma IHf : forall e, mm_guard e = true -> post True (rec e) xforest.
  Proof. intros e G. apply (post_weaken True _ xelement); [apply IH, G | apply xelement_forest]. Qed.

  Lemma mm_list_forest : forall args, forallb mm_guard args = true -> post True (mm_list rec args) xforest.
  Proof.
    intros args G. apply (post_bind True (Forall xforest)); [|intros ls Hls; apply xforest_concat, Hls].
    apply post_mapM. intros x Hx. apply IHf, (proj1 (forallb_forall _ _) G x Hx).
  Qed.

  (* <apply><op/> args </apply> *)
  Lemma app_list_elem : forall op args,
    xml_name_ok op = true -> forallb mm_guard args = true ->
    post True (match mm_list rec args with Ok b => Ok (x_app op b) | e => e end) xelement.
  Proof.
    intros op args Hn G. apply (post_bind True xforest); [apply mm_list_forest, G | intros b Hb].
    apply x_app_elem; assumption.
  Qed.

  Lemma mm_pow_elem : forall b x, mm_guard b = true -> mm_guard x = true -> post True (mm_pow rec b x) xelement.
  Proof. intros b x Gb Gx. apply app_list_elem; [reflexivity|]. simpl. rewrite Gb, Gx. reflexivity. Qed.

  Lemma mm_factor_forest : forall p,
    mm_guard (fst p) = true -> mm_guard (snd p) = true -> post True (mm_factor rec p) xforest.
  Proof.
    intros p G1 G2. unfold mm_factor. apply (post_weaken True _ xelement); [|apply xelement_forest].
    destruct (is_num_int (snd p) 1); [apply IH, G1 | apply mm_pow_elem; assumption].
  Qed.

  (* <apply><op/> coefficient entries </apply> of Add and Mul *)
  Lemma dict_elem : forall {A} op (skip : bool) (c : number) (f : A -> res (list xtok)) (d : list A),
    xml_name_ok op = true -> (forall p, In p d -> post True (f p) xforest) ->
    post True (match (if skip then Ok [] else mm_number c) with
               | Ok cs =>
                   match mapM f d with
                   | Ok fs => Ok (x_app op (cs ++ concat fs))
                   | ErrOOB i n => ErrOOB i n
                   | ErrFuel => ErrFuel
                   | ErrExn c => ErrExn c
                   end
               | e => e
               end) xelement.
  Proof.
    intros A op skip c f d Hn Hd. apply (post_bind True xforest).
    - destruct skip; [constructor|]. apply (post_weaken True _ xelement); [apply mm_number_elem | apply xelement_forest].
    - intros cs Hcs. apply (post_bind True (Forall xforest)); [apply post_mapM, Hd | intros fs Hfs].
      apply x_app_elem; [exact Hn | apply xforest_app; [exact Hcs | apply xforest_concat, Hfs]].
  Qed.

  Lemma mm_mul_elem : forall c d,
    forallb (fun q => mm_guard (fst q) && mm_guard (snd q)) d = true -> post True (mm_mul rec c d) xelement.
  Proof.
    intros c d G. apply dict_elem; [reflexivity|]. intros p Hp.
    pose proof (proj1 (forallb_forall _ _) G p Hp) as Gp. apply andb_prop in Gp. apply mm_factor_forest; apply Gp.
  Qed.

  Lemma mm_term_forest : forall p, mm_guard (fst p) = true -> post True (mm_term rec p) xforest.
  Proof.
    intros [k v] G. unfold mm_term. cbn [fst snd] in *.
    apply (post_weaken True _ xelement); [|apply xelement_forest].
    destruct (num_is v 1); [apply IH, G|]. destruct (num_is v 0); [apply mm_number_elem|].
    assert (Hk : post True (mm_mul rec v [(k, ENum (NInt 1))]) xelement)
      by (apply mm_mul_elem; cbn [forallb fst snd]; rewrite G; reflexivity).
    unfold mm_guard in G.
    destruct k; try exact Hk; cbn [all_nodes] in G; apply andb_prop in G; destruct G as [_ G].
    - destruct (num_is_zero v); [apply mm_number_elem|]. destruct d; [apply mm_number_elem|].
      apply mm_mul_elem, G.
    - apply mm_mul_elem. cbn [forallb fst snd]. unfold mm_guard. rewrite G. reflexivity.
  Qed.

  Lemma mm_add_elem : forall c d,
    forallb (fun q => mm_guard (fst q)) d = true -> post True (mm_add rec c d) xelement.
  Proof.
    intros c d G. apply dict_elem; [reflexivity|]. intros p Hp.
    apply mm_term_forest, (proj1 (forallb_forall _ _) G p Hp).
  Qed.

  Lemma mm_function_elem : forall code args,
    xml_name_ok (mathml_name code) = true -> forallb mm_guard args = true ->
    post True (mm_function rec code args) xelement.
  Proof. intros code args. apply app_list_elem. Qed.

  Lemma mm_node_elem : forall e, mm_guard e = true -> post True (mm_node rec e) xelement.
  Proof using IH.
    intros e G. unfold mm_guard in G.
    destruct e as [n|nm|nm idx|nm|c d|c d|b x|code a|code a c|code args|nm args|code a c|a xs|a d|pl|bv|s x lo ro|code];
      cbn [all_nodes] in G; apply andb_prop in G; destruct G as [Gn Gk]; cbn [mm_node]; try exact I.
    - apply mm_number_elem.
    - apply wrap_elem; [reflexivity | reflexivity | apply xml_escape_forest].
    - apply wrap_elem; [reflexivity | reflexivity | apply xml_escape_forest].
    - apply mm_constant_elem.
    - apply mm_add_elem, Gk.
    - apply mm_mul_elem, Gk.
    - apply andb_prop in Gk. apply mm_pow_elem; apply Gk.
    - (* EF1 *)
      unfold mm_node_ok, mm_function_node in Gn.
      destruct (code =? TC_Not).
      { apply (post_bind True xforest); [apply IHf, Gk | intros l Hl]. apply x_app_elem; [reflexivity | exact Hl]. }
      destruct (code =? TC_UnevaluatedExpr); [apply IH, Gk|].
      apply mm_function_elem; [exact Gn|]. simpl. unfold mm_guard. rewrite Gk. reflexivity.
    - (* EF2 *)
      assert (GL : forallb mm_guard [a; c] = true) by (simpl; rewrite andb_true_r; exact Gk).
      unfold mm_node_ok, mm_function_node in Gn.
      destruct (rel_tag code) as [tag|] eqn:ER; [|apply mm_function_elem; assumption].
      apply app_list_elem; [|exact GL]. unfold rel_tag in ER.
      repeat match type of ER with
             | (if ?c then _ else _) = _ => destruct c; [inv ER; reflexivity|]
             end. discriminate.
    - (* EFN *)
      unfold mm_node_ok, mm_function_node in Gn.
      destruct (code =? TC_And); [apply app_list_elem; [reflexivity | exact Gk]|].
      destruct (code =? TC_Or); [apply app_list_elem; [reflexivity | exact Gk]|].
      destruct (code =? TC_Xor); [apply app_list_elem; [reflexivity | exact Gk]|].
      destruct (code =? TC_Union); [apply app_list_elem; [reflexivity | exact Gk]|].
      destruct (code =? TC_FiniteSet).
      { apply (post_bind True xforest); [apply mm_list_forest, Gk | intros b Hb].
        apply wrap_elem; [reflexivity | reflexivity | exact Hb]. }
      destruct (code =? TC_Intersection); [exact I|].
      destruct (code =? TC_ConditionSet).
      { destruct args as [|sym [|cond [|? ?]]]; try exact I.
        simpl in Gk. apply andb_prop in Gk. destruct Gk as [Gs Gc]. apply andb_prop in Gc. destruct Gc as [Gc _].
        apply (post_bind True xforest); [apply IHf, Gs | intros s Fs].
        apply (post_bind True xforest); [apply IHf, Gc | intros cd Fc]. cbn [post]. xwalk. }
      destruct (code =? TC_ImageSet); [|simpl in Gn; apply mm_function_elem; assumption].
      destruct args as [|sym [|ex [|base [|? ?]]]]; try exact I.
      simpl in Gk. apply andb_prop in Gk. destruct Gk as [Gs Gk]. apply andb_prop in Gk. destruct Gk as [Gx Gk].
      apply andb_prop in Gk. destruct Gk as [Gb _].
      apply (post_bind True xforest); [apply IHf, Gx | intros x Fx].
      apply (post_bind True xforest); [apply IHf, Gs | intros s Fs].
      apply (post_bind True xforest); [apply IHf, Gb | intros b Fb]. cbn [post]. xwalk.
    - (* EFunSym *)
      apply (post_bind True xforest); [apply mm_list_forest, Gk | intros b Fb]. cbn [post].
      pose proof (xml_escape_forest nm). xwalk.
    - (* ELex *)
      assert (GL : forallb mm_guard [a; c] = true) by (simpl; rewrite andb_true_r; exact Gk).
      destruct (code =? TC_Contains); [apply app_list_elem; [reflexivity | exact GL]|].
      destruct (code =? TC_Complement); [apply app_list_elem; [reflexivity | exact GL] | exact I].
    - (* EDeriv *)
      apply andb_prop in Gk. destruct Gk as [Ga Gx].
      apply (post_bind True xforest); [apply mm_list_forest, Gx | intros vs Fx].
      apply (post_bind True xforest); [apply IHf, Ga | intros b Fa]. cbn [post]. xwalk.
    - (* EPw *)
      apply (post_bind True (Forall xforest)).
      2: { intros ps Hps. apply wrap_elem; [reflexivity | reflexivity | apply xforest_concat, Hps]. }
      apply post_mapM. intros p Hp. pose proof (proj1 (forallb_forall _ _) Gk p Hp) as Gp.
      apply (post_bind True xforest); [apply mm_list_forest; simpl; rewrite andb_true_r; exact Gp | intros b Fb].
      apply wrap_forest; [reflexivity | reflexivity | exact Fb].
    - apply xe_empty. destruct bv; reflexivity.
    - (* EInterval *)
      apply (post_bind True xforest); [apply mm_list_forest; simpl; rewrite andb_true_r; exact Gk | intros b Fb].
      apply wrap_elem; [reflexivity | destruct lo, ro; reflexivity | exact Fb].
    - apply mm_atom_elem.
  Qed.
End Rec.

Lemma mathml_fuel_elem : forall f e, mm_guard e = true -> post True (mathml_fuel f e) xelement.
Proof. induction f as [|f IHfuel]; intros e G; [exact I|]. apply mm_node_elem; assumption. Qed.

Theorem mathml_wellformed : forall e l, mm_guard e = true -> mathml_toks e = Ok l -> xelement l.
Proof. intros e l G. revert l. apply yields_iff, mathml_fuel_elem, G. Qed.

(* every function class of the library's name table has a name that is an XML name: on the trees
   the library can build the guard is true *)
Lemma mm_names_ok : forallb (fun q => xml_name_ok (mathml_name (fst q))) str_names = true.
Proof. vm_compute. reflexivity. Qed.
