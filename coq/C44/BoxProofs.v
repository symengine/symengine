(* C44 -- StringBox: every operation of stringbox.cpp preserves "all lines have display width
   width_" (for both boxes it mutates). *)
From Coq Require Import List Bool NArith ZArith Lia.
Import ListNotations.
From SE Require Import C44.C44Spec C44.Results C44.TextProofs.
Local Open Scope N_scope.

(* evaluate the display width of closed byte strings in the goal *)
Ltac dwc :=
  repeat match goal with
         | |- context [dwidth ?g] =>
             tryif is_var g then fail
             else (let v := eval vm_compute in (dwidth g) in progress change (dwidth g) with v)
         end.

Lemma dwidth_app : forall a b, dwidth (a ++ b) = dwidth a + dwidth b.
Proof.
  intros a b. unfold dwidth. rewrite filter_app, app_length. apply Nat2N.inj_add.
Qed.
Lemma dwidth_nil : dwidth [] = 0.
Proof. reflexivity. Qed.
Lemma dwidth_repeat : forall c k, is_cont c = false -> dwidth (repeat c k) = N.of_nat k.
Proof.
  intros c k H. unfold dwidth. f_equal.
  induction k; cbn [repeat filter]; [reflexivity|]. rewrite H. cbn [negb length]. f_equal. exact IHk.
Qed.
Lemma dwidth_spaces : forall n, dwidth (spaces n) = n.
Proof. intro n. unfold spaces. rewrite dwidth_repeat by reflexivity. apply N2Nat.id. Qed.
Lemma dwidth_ascii : forall s, ascii s = true -> dwidth s = blen s.
Proof.
  intros s H. unfold dwidth, blen. f_equal. induction s as [|c s IH]; [reflexivity|].
  simpl in H. apply andb_prop in H. destruct H as [H1 H2]. simpl.
  assert (is_cont c = false) as ->.
  { unfold is_cont. apply N.ltb_lt in H1. destruct (128 <=? c) eqn:E; [apply N.leb_le in E; lia | reflexivity]. }
  simpl. f_equal. apply IH. exact H2.
Qed.
Lemma dwidth_hbars : forall k, dwidth (concat (repeat g_hbar k)) = N.of_nat k.
Proof.
  induction k; cbn [repeat concat]; [reflexivity|].
  rewrite dwidth_app, IHk. change (dwidth g_hbar) with 1. lia.
Qed.

Lemma rect_intro : forall ls w, Forall (fun l => dwidth l = w) ls -> rect (mkBox ls w).
Proof. intros. exact H. Qed.

Lemma rect_box_w : forall s w, dwidth s = w -> rect (box_w s w).
Proof. intros. unfold rect, box_w. simpl. constructor; [assumption | constructor]. Qed.
Lemma rect_box_s : forall s, ascii s = true -> rect (box_s s).
Proof. intros. apply rect_box_w. apply dwidth_ascii. assumption. Qed.
Lemma rect_box_e : rect box_e.
Proof. constructor. Qed.

Lemma map_rect : forall (f : list N -> list N) w w' ls,
  (forall l, dwidth l = w -> dwidth (f l) = w') ->
  Forall (fun l => dwidth l = w) ls -> Forall (fun l => dwidth l = w') (List.map f ls).
Proof. intros f w w' ls Hf H. apply Forall_map. exact (Forall_impl _ Hf H). Qed.

Lemma pad_lines_rect : forall b nw, rect b -> width b <= nw ->
  Forall (fun l => dwidth l = nw) (pad_lines b nw).
Proof.
  intros b nw R Hle. unfold pad_lines. apply (map_rect _ (width b)); [|exact R]. intros l Hl.
  rewrite !dwidth_app, dwidth_spaces, Hl.
  set (diff := nw - width b).
  assert (Hn : nw = width b + diff) by (subst diff; lia).
  assert (Hd : diff = 2 * (diff / 2) + diff mod 2) by (apply N.div_mod; lia).
  generalize dependent (diff / 2). generalize dependent (diff mod 2). intros r q Hd.
  destruct (0 <? q) eqn:E.
  - rewrite dwidth_spaces. lia.
  - apply N.ltb_ge in E. rewrite dwidth_nil. lia.
Qed.

Lemma add_below_rect : forall a o, rect a -> rect o ->
  rect (fst (add_below a o)) /\ rect (snd (add_below a o)).
Proof.
  intros a o Ra Ro. unfold add_below.
  destruct (width a <? width o) eqn:E1; simpl.
  - apply N.ltb_lt in E1. split; [|exact Ro]. apply rect_intro. apply Forall_app. split.
    + apply pad_lines_rect; [exact Ra | lia].
    + exact Ro.
  - destruct (width o <? width a) eqn:E2; simpl.
    + apply N.ltb_lt in E2.
      assert (Rp : Forall (fun l => dwidth l = width a) (pad_lines o (width a)))
        by (apply pad_lines_rect; [exact Ro | lia]).
      split; [|exact Rp]. apply rect_intro. apply Forall_app. split; [exact Ra | exact Rp].
    + apply N.ltb_ge in E1. apply N.ltb_ge in E2. assert (width o = width a) as Ew by lia.
      split; [|exact Ro]. apply rect_intro. apply Forall_app. split; [exact Ra|].
      unfold rect in Ro. rewrite Ew in Ro. exact Ro.
Qed.

Lemma add_below_line_rect : forall a o, rect a -> rect o ->
  rect (fst (add_below_unicode_line a o)) /\ rect (snd (add_below_unicode_line a o)).
Proof.
  intros a o Ra Ro. unfold add_below_unicode_line.
  apply add_below_rect; [|exact Ro].
  apply add_below_rect; [exact Ra|].
  apply rect_box_w. rewrite dwidth_hbars. apply N2Nat.id.
Qed.

Lemma zip_app_rect : forall x y wa wo,
  Forall (fun l => dwidth l = wa) x -> Forall (fun l => dwidth l = wo) y ->
  Forall (fun l => dwidth l = wa + wo) (zip_app x y).
Proof.
  induction x as [|l x IH]; intros y wa wo Hx Hy; simpl; [constructor|].
  destruct y as [|m y]; [constructor|]. inv Hx. inv Hy.
  constructor; [rewrite dwidth_app; reflexivity | apply IH; assumption].
Qed.

Lemma Forall_repeat : forall {A} (P : A -> Prop) x k, P x -> Forall P (repeat x k).
Proof. induction k; simpl; intros; constructor; auto. Qed.

Lemma add_right_rect : forall a o, rect a -> rect o ->
  rect (fst (add_right a o)) /\ rect (snd (add_right a o)).
Proof.
  intros a o Ra Ro. unfold add_right.
  set (half := Nat.div _ 2). set (odd := Nat.modulo _ 2).
  assert (Hg : forall b, rect b ->
            Forall (fun l => dwidth l = width b)
              (repeat (spaces (width b)) (half + odd) ++ lines b ++ repeat (spaces (width b)) half)).
  { intros b Rb. apply Forall_app. split; [apply Forall_repeat, dwidth_spaces|].
    apply Forall_app. split; [exact Rb | apply Forall_repeat, dwidth_spaces]. }
  destruct (Nat.ltb (length (lines a)) (length (lines o))); simpl.
  - split; [|exact Ro]. apply rect_intro. apply zip_app_rect; [exact (Hg a Ra) | exact Ro].
  - split; [|exact (Hg o Ro)]. apply rect_intro. apply zip_app_rect; [exact Ra | exact (Hg o Ro)].
Qed.

Lemma add_power_rect : forall a o, rect a -> rect o -> rect (add_power a o).
Proof.
  intros a o Ra Ro. unfold add_power. apply rect_intro. apply Forall_app. split.
  - apply Forall_rev, (map_rect _ (width o)); [|exact Ro]. intros l Hl. rewrite dwidth_app, dwidth_spaces, Hl. reflexivity.
  - apply (map_rect _ (width a)); [|exact Ra]. intros l Hl. rewrite dwidth_app, dwidth_spaces, Hl. reflexivity.
Qed.

Lemma map_wrap_rect : forall (g1 g2 : list N) ls w k,
  dwidth g1 + dwidth g2 = k -> Forall (fun l => dwidth l = w) ls ->
  Forall (fun l => dwidth l = w + k) (List.map (fun l => g1 ++ l ++ g2) ls).
Proof.
  intros g1 g2 ls w k Hk. apply map_rect. intros l <-. rewrite !dwidth_app. lia.
Qed.

Lemma enclose_abs_rect : forall b, rect b -> rect (enclose_abs b).
Proof. intros b R. unfold enclose_abs. apply rect_intro. apply map_wrap_rect; [reflexivity | exact R]. Qed.

Definition put1 (put : list N -> list N -> list N) : Prop :=
  forall g l, dwidth (put g l) = dwidth l + dwidth g.
Lemma put1_left : put1 put_left.
Proof. intros g l. unfold put_left. rewrite dwidth_app. lia. Qed.
Lemma put1_right : put1 put_right.
Proof. intros g l. unfold put_right. rewrite dwidth_app. lia. Qed.

Lemma rev_cons_split : forall {A} (rest : list A) last rmid, rev rest = last :: rmid -> rest = rev rmid ++ [last].
Proof. intros A rest last rmid H. rewrite <- (rev_involutive rest), H. reflexivity. Qed.

Lemma deco3_rect : forall put top mid bot ls w,
  put1 put -> dwidth top = 1 -> dwidth mid = 1 -> dwidth bot = 1 ->
  Forall (fun l => dwidth l = w) ls -> Forall (fun l => dwidth l = w + 1) (deco3 put top mid bot ls).
Proof.
  intros put top mid bot ls w Hp Ht Hm Hb H. unfold deco3.
  destruct ls as [|first rest]; [constructor|]. inv H.
  destruct (rev rest) as [|last rmid] eqn:E.
  - constructor; [rewrite Hp, Ht; lia | constructor].
  - apply rev_cons_split in E. subst rest. apply Forall_app in H3. destruct H3 as [H3 H4]. inv H4.
    constructor; [rewrite Hp, Ht; lia|]. apply Forall_app. split.
    + eapply map_rect; [|exact H3]. intros l Hl. rewrite Hp, Hm, Hl. reflexivity.
    + constructor; [rewrite Hp, Hb; lia | constructor].
Qed.

Lemma bracket_side_rect : forall put one top mid bot b,
  put1 put -> dwidth one = 1 -> dwidth top = 1 -> dwidth mid = 1 -> dwidth bot = 1 ->
  rect b -> post True (bracket_side put one top mid bot b) rect.
Proof.
  intros put one top mid bot b Hp H1 Ht Hm Hb R. unfold bracket_side. unfold rect in R.
  destruct (lines b) as [|l [|l2 ls]] eqn:El; [exact I | |]; apply rect_intro.
  - inv R. constructor; [rewrite Hp, H1; lia | constructor].
  - exact (deco3_rect put top mid bot (l :: l2 :: ls) (width b) Hp Ht Hm Hb R).
Qed.

Lemma add_left_parens_rect : forall b, rect b -> post True (add_left_parens b) rect.
Proof. intros b R. apply (bracket_side_rect put_left); try reflexivity; [apply put1_left | exact R]. Qed.
Lemma add_right_parens_rect : forall b, rect b -> post True (add_right_parens b) rect.
Proof. intros b R. apply (bracket_side_rect put_right); try reflexivity; [apply put1_right | exact R]. Qed.
Lemma add_left_sq_rect : forall b, rect b -> post True (add_left_sqbracket b) rect.
Proof. intros b R. apply (bracket_side_rect put_left); try reflexivity; [apply put1_left | exact R]. Qed.
Lemma add_right_sq_rect : forall b, rect b -> post True (add_right_sqbracket b) rect.
Proof. intros b R. apply (bracket_side_rect put_right); try reflexivity; [apply put1_right | exact R]. Qed.

Lemma rthen_rect : forall {B} (r : res sbox) (f : sbox -> res B) (Q : B -> Prop),
  post True r rect -> (forall b, rect b -> post True (f b) Q) -> post True (rthen r f) Q.
Proof. intros B r f Q. exact (post_bind True rect r f Q). Qed.

Lemma enclose_parens_rect : forall b, rect b -> post True (enclose_parens b) rect.
Proof. intros b R. apply rthen_rect; [apply add_left_parens_rect, R | apply add_right_parens_rect]. Qed.
Lemma enclose_sq_rect : forall b, rect b -> post True (enclose_sqbrackets b) rect.
Proof. intros b R. apply rthen_rect; [apply add_left_sq_rect, R | apply add_right_sq_rect]. Qed.

Lemma curly_mid_rect : forall put gmid mid ls i w,
  put1 put -> dwidth gmid = 1 -> Forall (fun l => dwidth l = w) ls ->
  Forall (fun l => dwidth l = w + 1) (curly_mid put gmid mid i ls).
Proof.
  induction ls as [|l ls IH]; intros i w Hp Hg H; simpl; [constructor|]. inv H.
  constructor; [|apply IH; assumption].
  rewrite Hp. destruct (Nat.eqb i mid); [rewrite Hg | change (dwidth g_c_ext) with 1]; reflexivity.
Qed.

Lemma curly_side_rect : forall left b, rect b -> post True (curly_side left b) rect.
Proof.
  intros left b R. unfold curly_side. unfold rect in R.
  set (put := if left then put_left else put_right) in *.
  assert (Hp : put1 put) by (destruct left; [apply put1_left | apply put1_right]).
  destruct (lines b) as [|l0 [|l1 [|l2 ls]]] eqn:El; [exact I | | |].
  - pose proof (Forall_inv R) as W0. cbv beta in W0. apply rect_intro. constructor; [|constructor].
    rewrite Hp. destruct left; dwc; lia.
  - pose proof (Forall_inv R) as W0. pose proof (Forall_inv (Forall_inv_tail R)) as W1.
    cbv beta in W0, W1. apply rect_intro.
    constructor; [rewrite Hp; destruct left; dwc; lia|].
    constructor; [destruct left; rewrite dwidth_app, dwidth_spaces; dwc; lia|].
    constructor; [rewrite Hp; destruct left; dwc; lia | constructor].
  - destruct (rev (l1 :: l2 :: ls)) as [|last rmid] eqn:E; [exact I|].
    apply rev_cons_split in E. pose proof (Forall_inv R) as W0. pose proof (Forall_inv_tail R) as Rt.
    rewrite E in Rt. apply Forall_app in Rt. destruct Rt as [Rm Rl]. pose proof (Forall_inv Rl) as Wl.
    cbv beta in W0, Wl.
    apply rect_intro. constructor; [rewrite Hp; destruct left; dwc; lia|].
    apply Forall_app. split.
    + apply curly_mid_rect; [exact Hp | destruct left; reflexivity | exact Rm].
    + constructor; [rewrite Hp; destruct left; dwc; lia | constructor].
Qed.

Lemma enclose_curlies_rect : forall b, rect b -> post True (enclose_curlies b) rect.
Proof. intros b R. apply rthen_rect; [apply curly_side_rect, R | apply curly_side_rect]. Qed.

Lemma enclose_floor_rect : forall b, rect b -> post True (enclose_floor b) rect.
Proof.
  intros b R. unfold enclose_floor. unfold rect in R.
  destruct (rev (lines b)) as [|last rinit] eqn:E; [exact I|].
  apply rev_cons_split in E. rewrite E in R. apply Forall_app in R. destruct R as [R1 R2]. inv R2.
  apply rect_intro. apply Forall_app. split.
  - apply map_wrap_rect; [reflexivity | exact R1].
  - constructor; [|constructor]. rewrite !dwidth_app.
    change (dwidth g_lfloor) with 1. change (dwidth g_rfloor) with 1. lia.
Qed.

Lemma enclose_ceiling_rect : forall b, rect b -> post True (enclose_ceiling b) rect.
Proof.
  intros b R. unfold enclose_ceiling. unfold rect in R.
  destruct (lines b) as [|first rest] eqn:E; [exact I|]. inv R.
  apply rect_intro. constructor.
  - rewrite !dwidth_app. change (dwidth g_lceil) with 1. change (dwidth g_rceil) with 1. lia.
  - apply map_wrap_rect; [reflexivity | assumption].
Qed.

Lemma sqrt_lines_rect : forall len ls i w,
  i = length ls -> (i <= len)%nat -> Forall (fun l => dwidth l = w) ls ->
  Forall (fun l => dwidth l = w + N.of_nat len + 1) (sqrt_lines len i ls).
Proof.
  induction ls as [|l ls IH]; intros i w Hi Hle H; [constructor|].
  pose proof (Forall_inv H) as W0. pose proof (Forall_inv_tail H) as Wt. cbv beta in W0.
  subst i. cbn [sqrt_lines length]. cbn [length] in Hle.
  constructor.
  - rewrite dwidth_app, W0.
    destruct (Nat.eqb (S (length ls)) 1) eqn:E.
    + apply Nat.eqb_eq in E. rewrite !dwidth_app, dwidth_repeat by reflexivity. dwc. lia.
    + rewrite !dwidth_app, !dwidth_repeat by reflexivity. dwc. lia.
  - apply IH; [reflexivity | lia | exact Wt].
Qed.

Lemma enclose_sqrt_rect : forall b, rect b -> rect (enclose_sqrt b).
Proof.
  intros b R. unfold enclose_sqrt. apply rect_intro. constructor.
  - rewrite dwidth_app, !dwidth_repeat by reflexivity. rewrite N2Nat.id. lia.
  - apply sqrt_lines_rect; [reflexivity | lia | exact R].
Qed.

Definition pushes_rect (ops : list boxop) : Prop :=
  Forall (fun o => match o with OPush b => rect b | _ => True end) ops.

Lemma un_op_rect : forall o a, rect a -> post True (un_op o a) rect.
Proof.
  intros o a R. destruct o; cbn [un_op post]; unfold add_left_curly, add_right_curly;
    auto using enclose_abs_rect, enclose_parens_rect, enclose_sq_rect, enclose_curlies_rect, enclose_floor_rect,
      enclose_ceiling_rect, enclose_sqrt_rect, add_left_parens_rect, add_right_parens_rect, add_left_sq_rect,
      add_right_sq_rect, curly_side_rect.
Qed.

Theorem stringbox_rect : forall ops st st',
  pushes_rect ops -> Forall rect st -> run_box ops st = Ok st' -> Forall rect st'.
Proof.
  intros ops st st' Hp Hs. revert st'. apply yields_iff. revert st Hs.
  induction Hp as [|o ops Ho Hp IH]; intros st Hs; [exact Hs|].
  assert (Hbin : forall f : sbox -> sbox -> sbox, (forall a b, rect a -> rect b -> rect (f a b)) ->
            post True (match st with
                       | b :: a :: st0 => run_box ops (f a b :: st0)
                       | _ => ErrExn EXN_STD
                       end) (Forall rect)).
  { intros f Hf. destruct st as [|b [|a st0]]; try exact I. inv Hs. inv H2. apply IH. constructor; auto. }
  destruct o; cbn [run_box];
    try (destruct st as [|a st0]; [exact I|]; inv Hs;
         apply rthen_rect; [apply un_op_rect; assumption | intros a' Ra; apply IH; constructor; assumption]).
  - apply IH. constructor; assumption.
  - apply (Hbin (fun a b => fst (add_below a b))). intros; apply add_below_rect; assumption.
  - apply (Hbin (fun a b => fst (add_below_unicode_line a b))). intros; apply add_below_line_rect; assumption.
  - apply (Hbin (fun a b => fst (add_right a b))). intros; apply add_right_rect; assumption.
  - apply (Hbin add_power). apply add_power_rect.
Qed.

(* outside the statement of C44 (rectangularity is preserved), recorded because the model has to
   transcribe it: add_power inserts the exponent's lines one by one at the front, i.e. in reverse *)
Definition add_power_in_order (a o : sbox) : Prop :=
  lines (add_power a o)
  = List.map (fun l => spaces (width a) ++ l) (lines o) ++ List.map (fun l => l ++ spaces (width o)) (lines a).
Theorem add_power_order_refuted :
  exists a o, rect a /\ rect o /\ ~ add_power_in_order a o.
Proof.
  exists (box_s [120]), (mkBox [[121]; [45]; [122]] 1).
  split; [apply rect_box_s; reflexivity|]. split; [repeat constructor|].
  unfold add_power_in_order. vm_compute. intro H. discriminate.
Qed.

Theorem stringbox_ops_rect :
  forall a o : sbox, rect a -> rect o ->
    (rect (fst (add_right a o)) /\ rect (snd (add_right a o))) /\
    (rect (fst (add_below a o)) /\ rect (snd (add_below a o))) /\
    (rect (fst (add_below_unicode_line a o)) /\ rect (snd (add_below_unicode_line a o))) /\
    rect (add_power a o) /\ rect (enclose_abs a) /\ rect (enclose_sqrt a).
Proof.
  intros a o Ra Ro.
  exact (conj (add_right_rect a o Ra Ro) (conj (add_below_rect a o Ra Ro) (conj (add_below_line_rect a o Ra Ro)
          (conj (add_power_rect a o Ra Ro) (conj (enclose_abs_rect a Ra) (enclose_sqrt_rect a Ra)))))).
Qed.
