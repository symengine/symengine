(* C44 -- UnicodePrinter: when every Symbol / FunctionSymbol name is ASCII, the StringBox of
   unicode(e) is rectangular (all lines have display width width_). *)
From Coq Require Import List Bool NArith ZArith Lia.
Import ListNotations.
From SE Require Import C44.C44Spec C44.Results C44.TextProofs C44.BoxProofs.
Local Open Scope N_scope.

Definition asc (c : N) : bool := c <? 128.
Lemma asc_digit : forall c, 48 <= c -> c <= 57 -> asc c = true.
Proof. intros c H1 H2. unfold asc. apply N.ltb_lt. lia. Qed.
Lemma ascii_dec_Z : forall z, ascii (dec_Z z) = true.
Proof. intro z. apply (chars_dec_Z asc asc_digit); reflexivity. Qed.
Lemma ascii_dec_N : forall n, ascii (dec_N n) = true.
Proof. intro n. apply (chars_dec_N asc asc_digit). Qed.
Lemma ascii_double : forall b, ascii (print_double b) = true.
Proof. intro b. apply (chars_print_double asc asc_digit); reflexivity. Qed.
Lemma ascii_app : forall a b, ascii a = true -> ascii b = true -> ascii (a ++ b) = true.
Proof. intros a b Ha Hb. unfold ascii in *. rewrite forallb_app, Ha, Hb. reflexivity. Qed.

Lemma blen_app : forall a b, blen (a ++ b) = blen a + blen b.
Proof. intros. unfold blen. rewrite app_length. apply Nat2N.inj_add. Qed.

Lemma ascii_u_qi : forall p q, ascii (u_qi p q) = true.
Proof.
  intros p q. unfold u_qi, u_q. destruct q; try apply ascii_dec_Z;
    (apply ascii_app; [apply ascii_dec_Z | apply ascii_app; [reflexivity | apply ascii_dec_N]]).
Qed.

(* an ASCII text followed by the imaginary unit / by the product sign and the imaginary unit *)
Lemma rect_ascii_imag : forall A, ascii A = true -> rect (box_w (A ++ g_imag) (blen (A ++ g_imag) - 3)).
Proof.
  intros A H. apply rect_box_w. rewrite dwidth_app, blen_app, (dwidth_ascii A H).
  change (dwidth g_imag) with 1. change (blen g_imag) with 4. lia.
Qed.
Lemma rect_ascii_dot_imag : forall A, ascii A = true ->
  rect (box_w (A ++ g_dot ++ g_imag) (blen (A ++ g_dot ++ g_imag) - 3 - 2)).
Proof.
  intros A H. apply rect_box_w. rewrite !dwidth_app, !blen_app, (dwidth_ascii A H).
  change (dwidth g_imag) with 1. change (blen g_imag) with 4.
  change (dwidth g_dot) with 1. change (blen g_dot) with 3. lia.
Qed.

Lemma u_complex_rect : forall rn rd imn imd, rect (u_complex rn rd imn imd).
Proof.
  intros. unfold u_complex.
  assert (Hs : forall b : bool, ascii (if b then s_plus else s_minus) = true) by (destruct b; reflexivity).
  destruct (negb (rn =? 0)%Z).
  - destruct (_ && _).
    + rewrite N.sub_0_r. rewrite app_assoc. apply rect_ascii_imag.
      apply ascii_app; [apply ascii_u_qi | apply Hs].
    + rewrite !app_assoc. rewrite <- (app_assoc _ g_dot g_imag). apply rect_ascii_dot_imag.
      apply ascii_app; [apply ascii_app; [apply ascii_u_qi | apply Hs] | apply ascii_u_qi].
  - destruct (_ && _).
    + rewrite N.sub_0_r. destruct (0 <? imn)%Z.
      * apply (rect_ascii_imag []). reflexivity.
      * apply (rect_ascii_imag [45]). reflexivity.
    + apply rect_ascii_dot_imag. apply ascii_u_qi.
Qed.

Lemma unum_rect : forall n, rect (unum n).
Proof.
  destruct n; cbn [unum].
  - apply rect_box_s, ascii_dec_Z.
  - apply add_below_line_rect; apply rect_box_s; [apply ascii_dec_Z | apply ascii_dec_N].
  - apply u_complex_rect.
  - apply rect_box_s, ascii_double.
  - apply rect_box_w. rewrite !dwidth_app.
    assert (Ha : ascii (print_double re ++ (if dbl_negative im then s_minus ++ print_double (dbl_negate im)
                                            else s_plus ++ print_double im)) = true).
    { apply ascii_app; [apply ascii_double|].
      destruct (dbl_negative im); (apply ascii_app; [reflexivity | apply ascii_double]). }
    rewrite <- dwidth_app. rewrite (dwidth_ascii _ Ha).
    change (dwidth g_dot) with 1. change (dwidth g_imag) with 1. lia.
  - destruct (dir <? 0)%Z; [apply rect_box_w; reflexivity|].
    destruct (0 <? dir)%Z; apply rect_box_w; reflexivity.
  - apply rect_box_s. reflexivity.
Qed.

Lemma u_constant_rect : forall nm, post True (u_constant nm) rect.
Proof.
  intro nm. unfold u_constant.
  repeat (apply post_if; [apply rect_box_w; reflexivity|]). exact I.
Qed.
Lemma u_atom_rect : forall code, post True (u_atom code) rect.
Proof.
  intro code. unfold u_atom.
  repeat (apply post_if; [apply rect_box_w; reflexivity|]). exact I.
Qed.

Lemma ar1 : forall a o, rect a -> rect o -> rect (fst (add_right a o)).
Proof. intros. apply add_right_rect; assumption. Qed.
Lemma ar2 : forall a o, rect a -> rect o -> rect (snd (add_right a o)).
Proof. intros. apply add_right_rect; assumption. Qed.
Lemma ab1 : forall a o, rect a -> rect o -> rect (fst (add_below a o)).
Proof. intros. apply add_below_rect; assumption. Qed.
Lemma abl1 : forall a o, rect a -> rect o -> rect (fst (add_below_unicode_line a o)).
Proof. intros. apply add_below_line_rect; assumption. Qed.

(* the loops join the separator to the box, except before the first item *)
Lemma sep_rect : forall box sep r, rect box -> rect sep ->
  r = (box, sep) \/ r = add_right box sep -> rect (fst r) /\ rect (snd r).
Proof. intros box sep r Rb Rs [->| ->]; [split; assumption | apply add_right_rect; assumption]. Qed.

(* the literal boxes of the rules, by evaluation *)
Lemma rect_lit_w : forall s w, dwidth s =? w = true -> rect (box_w s w).
Proof. intros s w H. apply rect_box_w, N.eqb_eq, H. Qed.

(* [auto with rect]: a rule's box is rectangular because every StringBox operation it is built with
   keeps boxes rectangular *)
#[local] Hint Resolve ar1 ar2 ab1 abl1 unum_rect rect_box_e add_power_rect enclose_abs_rect enclose_sqrt_rect
  rthen_rect enclose_parens_rect enclose_curlies_rect enclose_floor_rect enclose_ceiling_rect curly_side_rect
  add_left_parens_rect add_right_parens_rect add_left_sq_rect add_right_sq_rect : rect.
#[local] Hint Extern 1 (post _ (Ok _) _) => cbn [post fst snd] : rect.
#[local] Hint Extern 1 (rect (box_s _)) => apply rect_box_s; reflexivity : rect.
#[local] Hint Extern 1 (rect (box_w _ _)) => apply rect_lit_w; reflexivity : rect.
#[local] Hint Extern 1 (rect mulbox0) => apply rect_lit_w; reflexivity : rect.

Lemma unicode_name_width : forall code, dwidth (fst (unicode_name code)) = snd (unicode_name code).
Proof.
  intro code. unfold unicode_name.
  destruct (tbl_find code unicode_over) as [[nm len]|] eqn:E.
  - apply N.eqb_eq.
    apply (tbl_find_prop (fun w : list N * N => dwidth (fst w) =? snd w) code unicode_over (nm, len));
      [vm_compute; reflexivity | exact E].
  - cbn [fst snd]. apply dwidth_ascii. unfold str_name, name_in. cbn [tbl_find].
    destruct (tbl_find code str_names) as [v|] eqn:E2; [|reflexivity].
    apply (tbl_find_prop ascii code str_names v); [vm_compute; reflexivity | exact E2].
Qed.

Section Rec.
  Variable rec : expr -> res sbox.
  Hypothesis IH : forall e, unicode_guard e = true -> post True (rec e) rect.

  Lemma uapp_rect : forall e, unicode_guard e = true -> post True (uapp rec e) rect.
  Proof. intros e G. destruct e; try (apply IH; exact G). apply unum_rect. Qed.

  #[local] Hint Resolve uapp_rect : rect.

  Lemma uparen_lt_rect : forall e p, unicode_guard e = true -> post True (uparen_lt rec e p) rect.
  Proof.
    intros e p G. apply rthen_rect; [auto with rect | intros b R]. destruct (precedence e <? p); auto with rect.
  Qed.
  Lemma uparen_le_rect : forall e p, unicode_guard e = true -> post True (uparen_le rec e p) rect.
  Proof.
    intros e p G. apply rthen_rect; [auto with rect | intros b R]. destruct (precedence e <=? p); auto with rect.
  Qed.

  Lemma guard_num : forall n, unicode_guard (ENum n) = true.
  Proof. reflexivity. Qed.

  #[local] Hint Resolve uparen_lt_rect uparen_le_rect guard_num : rect.

  Lemma u_pow_rect : forall a c,
    unicode_guard a = true -> unicode_guard c = true -> post True (u_pow rec a c) rect.
  Proof. intros a c Ga Gc. unfold u_pow. destruct (is_half c); auto 7 with rect. Qed.

  Lemma u_join_rect : forall l box sep first,
    forallb unicode_guard l = true -> rect box -> rect sep ->
    post True (u_join rec box sep first l) (fun r => rect (fst r) /\ rect (snd r)).
  Proof.
    induction l as [|x l IHl]; intros box sep first G Rb Rs; cbn [u_join]; [split; assumption|].
    simpl in G. apply andb_prop in G. destruct G as [Gx Gl].
    set (r := if first then _ else _).
    destruct (sep_rect box sep r Rb Rs) as [Rb1 Rs1]; [destruct first; auto|]. clearbody r. destruct r as [box1 sep1].
    apply rthen_rect; [auto with rect | intros arg Ra]. apply IHl; auto with rect.
  Qed.

  Lemma uapp_vec_rect : forall l, forallb unicode_guard l = true -> post True (uapp_vec rec l) rect.
  Proof.
    intros l G. eapply post_bind; [apply (u_join_rect l); auto with rect | intros r [R _]; exact R].
  Qed.

  Lemma u_infix_rect : forall op l,
    rect op -> forallb unicode_guard l = true -> post True (u_infix rec op l) rect.
  Proof.
    intros op l Ro G. unfold u_infix. destruct l as [|x l]; [exact I|].
    simpl in G. apply andb_prop in G. destruct G as [Gx Gl]. apply rthen_rect; [auto with rect | intros b Rb].
    eapply post_bind; [apply (u_join_rect l); assumption | intros r [R _]; exact R].
  Qed.

  Lemma u_bin_rect : forall op a c,
    rect op -> unicode_guard a = true -> unicode_guard c = true -> post True (u_bin rec op a c) rect.
  Proof. intros op a c Ro Ga Gc. unfold u_bin. auto 7 with rect. Qed.

  #[local] Hint Resolve u_pow_rect uapp_vec_rect u_infix_rect u_bin_rect : rect.

  Lemma u_add_terms_rect : forall d box first minus,
    forallb (fun p => unicode_guard (fst p)) d = true -> rect box ->
    post True (u_add_terms rec box first minus d) rect.
  Proof.
    induction d as [|[k v] d IHd]; intros box first minus G Rb; cbn [u_add_terms]; [exact Rb|].
    cbn [forallb fst] in G. apply andb_prop in G. destruct G as [Gk Gd].
    apply (post_bind True (fun tm => rect (fst tm))).
    - destruct (num_is v 1); [|destruct (num_is v (-1))]; auto 8 with rect.
    - intros [t minus1] Rt. cbn [fst] in Rt.
      destruct (negb first); [destruct minus1|]; apply IHd; auto with rect.
  Qed.

  Lemma u_add_rect : forall c d,
    forallb (fun p => unicode_guard (fst p)) d = true -> post True (u_add rec c d) rect.
  Proof.
    intros c d G. unfold u_add.
    assert (Gs : forallb (fun p => unicode_guard (fst p)) (pmap_of d) = true).
    { apply forallb_forall. intros p Hp. exact (proj1 (forallb_forall _ _) G p (pmap_of_incl d p Hp)). }
    destruct (negb (num_is c 0)); apply u_add_terms_rect; auto with rect.
  Qed.

  Definition umul_state (st : sbox * sbox * sbox * bool * nat) : Prop :=
    let '(box1, box2, mb, _, _) := st in rect box1 /\ rect box2 /\ rect mb.

  Lemma u_mul_factors_rect : forall d box1 box2 mb f1 f2 num den,
    forallb (fun q => unicode_guard (fst q) && unicode_guard (snd q)) d = true ->
    rect box1 -> rect box2 -> rect mb ->
    post True (u_mul_factors rec d box1 box2 mb f1 f2 num den) umul_state.
  Proof.
    induction d as [|[b x] d IHd]; intros box1 box2 mb f1 f2 num den G R1 R2 Rm; cbn [u_mul_factors];
      [cbn; auto|].
    cbn [forallb fst snd] in G. apply andb_prop in G. destruct G as [Gbx Gd]. apply andb_prop in Gbx.
    destruct Gbx as [Gb Gx].
    destruct (neg_rational_exp x) as [nx|].
    - set (r := if negb f2 then _ else _).
      destruct (sep_rect box2 mb r R2 Rm); [destruct f2; auto|]. clearbody r. destruct r as [box2a mb1].
      apply rthen_rect; [destruct (num_is nx 1); auto with rect | intros t Rt]. apply IHd; auto with rect.
    - set (r := if negb f1 then _ else _).
      destruct (sep_rect box1 mb r R1 Rm); [destruct f1; auto|]. clearbody r. destruct r as [box1a mb1].
      apply rthen_rect; [destruct (is_num_int x 1); auto with rect | intros t Rt]. apply IHd; auto with rect.
  Qed.

  Lemma u_mul_rect : forall c d,
    forallb (fun q => unicode_guard (fst q) && unicode_guard (snd q)) d = true -> post True (u_mul rec c d) rect.
  Proof.
    intros c d G. unfold u_mul.
    assert (Hpart : forall (m : number) (b : bool) {T U} (x y : T) (x' y' : U),
              post True (if b then rthen (uparen_lt rec (ENum m) PREC_Mul) (fun b => Ok (b, x, x'))
                         else Ok (box_e, y, y'))
                (fun r => rect (fst (fst r)))).
    { intros m b T U x y x' y'. destruct b; auto with rect. }
    apply (post_bind True (fun st => let '(b1, b2, _, _, _, _) := st in rect b1 /\ rect b2)).
    - destruct (num_is c (-1)); [cbn; auto with rect|]. destruct (negb (num_is c 1)); [|cbn; auto with rect].
      destruct (coef_numer_denom c) as [numer denom].
      eapply post_bind; [apply Hpart | intros [[b1 f1] n1] R1].
      eapply post_bind; [apply Hpart | intros [[b2 f2] d2] R2].
      cbn in *. auto.
    - intros [[[[[b1 b2] f1] f2] num0] den0] [R1 R2].
      eapply post_bind; [apply u_mul_factors_rect; auto with rect|].
      intros [[[[box1 box2] mb] num] den] (Rb1 & Rb2 & Rmb).
      assert (Rb1' : rect (if num then box1 else fst (add_right (fst (add_right box1 (box_s [49]))) mb)))
        by (destruct num; auto with rect).
      destruct den as [|[|den]]; auto with rect.
  Qed.

  Lemma u_function_rect : forall code args,
    forallb unicode_guard args = true -> post True (u_function rec code args) rect.
  Proof.
    intros code args G. unfold u_function.
    assert (Rn : rect (box_w (fst (unicode_name code)) (snd (unicode_name code))))
      by apply rect_box_w, unicode_name_width.
    destruct (unicode_name code) as [nm len]. auto 7 with rect.
  Qed.

  #[local] Hint Resolve u_function_rect : rect.

  Lemma u_node_rect : forall e, unicode_guard e = true -> post True (u_node rec e) rect.
  Proof using IH.
    intros e G. unfold unicode_guard in G.
    destruct e as [n|nm|nm idx|nm|c d|c d|bs x|code a|code a c|code args|nm args|code a c|a xs|a d|pl|bv|s x lo ro|code];
      cbn [all_nodes] in G; apply andb_prop in G; destruct G as [Gn Gk]; cbn [u_node]; try exact I.
    - apply unum_rect.
    - apply rect_box_s, Gn.
    - apply rect_box_s, Gn.
    - apply u_constant_rect.
    - apply u_add_rect, Gk.
    - apply u_mul_rect, Gk.
    - apply andb_prop in Gk. apply u_pow_rect; apply Gk.
    - (* EF1 *)
      assert (Ga : forallb unicode_guard [a] = true) by (simpl; unfold unicode_guard; rewrite Gk; reflexivity).
      destruct (code =? TC_Not); [auto 7 with rect|]. destruct (code =? TC_Abs); [auto with rect|].
      destruct (code =? TC_Floor); [auto with rect|]. destruct (code =? TC_Ceiling); auto with rect.
    - (* EF2 *)
      apply andb_prop in Gk. destruct Gk as [G1 G2].
      assert (Ga : forallb unicode_guard [a; c] = true) by (simpl; unfold unicode_guard; rewrite G1, G2; reflexivity).
      destruct (code =? TC_Equality); [auto with rect|]. destruct (code =? TC_Unequality); [auto with rect|].
      destruct (code =? TC_LessThan); [auto with rect|]. destruct (code =? TC_StrictLessThan); auto with rect.
    - (* EFN *)
      destruct (code =? TC_And); [auto with rect|]. destruct (code =? TC_Or); [auto with rect|].
      destruct (code =? TC_Xor); [auto with rect|]. destruct (code =? TC_Union); [auto with rect|].
      destruct (code =? TC_Intersection); [auto with rect|].
      destruct (code =? TC_FiniteSet).
      { eapply post_bind; [apply (u_join_rect args); auto with rect | intros r [R _]; auto with rect]. }
      destruct (code =? TC_ConditionSet).
      { destruct args as [|sym [|cond [|? ?]]]; try exact I.
        simpl in Gk. apply andb_prop in Gk. destruct Gk as [Gs Gc]. apply andb_prop in Gc. destruct Gc as [Gc _].
        auto with rect. }
      destruct (code =? TC_ImageSet); [|auto with rect].
      destruct args as [|sym [|ex [|base [|? ?]]]]; try exact I.
      simpl in Gk. apply andb_prop in Gk. destruct Gk as [Gs Gk]. apply andb_prop in Gk. destruct Gk as [Gx Gk].
      apply andb_prop in Gk. destruct Gk as [Gb _]. auto 8 with rect.
    - (* EFunSym *)
      eapply post_bind; [apply (u_join_rect args); auto with rect | intros r [R _]].
      apply rthen_rect; [auto with rect | intros a' Ra']. cbn [post]. apply ar1; [apply rect_box_s, Gn | exact Ra'].
    - (* ELex *)
      apply andb_prop in Gk. destruct Gk as [G1 G2].
      destruct (code =? TC_Contains); [auto with rect|]. destruct (code =? TC_Complement); [auto with rect | exact I].
    - (* EPw *)
      match goal with
      | |- context [rthen (?pieces box_e pl) add_left_curly] =>
          assert (Hp : forall l box,
                    forallb (fun q => unicode_guard (fst q) && unicode_guard (snd q)) l = true ->
                    rect box -> post True (pieces box l) rect)
      end.
      { induction l as [|[x0 c0] l IHl]; intros box G Rb; [exact Rb|].
        simpl in G. apply andb_prop in G. destruct G as [Gxc Gl]. apply andb_prop in Gxc. destruct Gxc as [Gx0 Gc0].
        apply rthen_rect; [auto with rect | intros piece Rp]. apply IHl; auto with rect. }
      destruct pl as [|p0 pl0]; [exact I|].
      exact (rthen_rect _ _ _ (Hp (p0 :: pl0) box_e Gk rect_box_e) (curly_side_rect true)).
    - destruct bv; auto with rect.
    - (* EInterval *)
      apply andb_prop in Gk. destruct Gk as [G1 G2].
      apply rthen_rect; [auto with rect | intros b R0]. apply rthen_rect; [destruct lo; auto with rect | intros b1 R1].
      destruct ro; auto with rect.
    - apply u_atom_rect.
  Qed.
End Rec.

Lemma ubox_fuel_rect : forall f e, unicode_guard e = true -> post True (ubox_fuel f e) rect.
Proof. induction f as [|f IHfuel]; intros e G; [exact I|]. apply u_node_rect; assumption. Qed.

Theorem unicode_rect : forall e b, unicode_guard e = true -> unicode_box e = Ok b -> rect b.
Proof. intros e b G. revert b. apply yields_iff, ubox_fuel_rect, G. Qed.

Lemma rect_b_iff : forall b, rect_b b = true <-> rect b.
Proof.
  intro b. unfold rect_b, rect. rewrite forallb_forall, Forall_forall.
  split; intros H l Hl; specialize (H l Hl); [apply N.eqb_eq | apply N.eqb_eq]; exact H.
Qed.

(* a Symbol with a non-ASCII name: StringBox(std::string) takes the byte length as width *)
Definition alpha_over_y : expr :=
  EMul (NInt 1) [(ESym [121], ENum (NInt (-1))); (ESym [206; 177], ENum (NInt 1))].
Theorem unicode_rect_refuted :
  exists b, unicode_box alpha_over_y = Ok b /\ ~ rect b /\ unicode_guard alpha_over_y = false.
Proof.
  eexists. split; [vm_compute; reflexivity|]. split; [|reflexivity].
  intro H. apply rect_b_iff in H. vm_compute in H. discriminate.
Qed.
