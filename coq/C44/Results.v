(* C44 -- reasoning about the results (res) of the printer models.
   [post d r P]: the result r satisfies P if it is a value, and counts as d otherwise; d = False reads
   "r returns a value satisfying P" (totality), d = True "if r returns a value, it satisfies P"
   (well-formedness).  Sequencing and mapM preserve it for every d.
   Also: a property of all entries of a name table holds of what a lookup finds ([tbl_find_prop]);
   the std::map of Add's printers holds entries of the dictionary only ([pmap_of_incl]). *)
From Coq Require Import List Bool NArith.
Import ListNotations.
From SE Require Import C44.Names.

Ltac inv H := inversion H; subst; clear H.

Lemma Ok_inj : forall {A} (a b : A), Ok a = Ok b -> a = b.
Proof. intros A a b H. injection H. auto. Qed.

Lemma concat_closed : forall {A} (P : list A -> Prop),
  P [] -> (forall a b, P a -> P b -> P (a ++ b)) -> forall ls, Forall P ls -> P (concat ls).
Proof. intros A P Hnil Happ. induction 1; simpl; auto. Qed.

Section Post.
  Variable d : Prop.

  Definition post {A} (r : res A) (P : A -> Prop) : Prop :=
    match r with Ok a => P a | _ => d end.

  Lemma post_weaken : forall {A} (r : res A) (P Q : A -> Prop),
    post r P -> (forall a, P a -> Q a) -> post r Q.
  Proof. destruct r; simpl; auto. Qed.

  (* one row of a rule table written as a cascade of tests *)
  Lemma post_if : forall {A} (P : A -> Prop) (c : bool) a r,
    P a -> post r P -> post (if c then Ok a else r) P.
  Proof. destruct c; auto. Qed.

  (* StrModel.rbind, BoxModel.rthen and the matches written out in MathMLModel all unfold to this *)
  Lemma post_bind : forall {A B} (P : A -> Prop) (r : res A) (f : A -> res B) (Q : B -> Prop),
    post r P -> (forall a, P a -> post (f a) Q) ->
    post (match r with
          | Ok a => f a
          | ErrOOB i n => ErrOOB i n
          | ErrFuel => ErrFuel
          | ErrExn c => ErrExn c
          end) Q.
  Proof. destruct r; simpl; auto. Qed.

  Lemma post_mapM : forall {A B} (f : A -> res B) (P : B -> Prop) l,
    (forall x, In x l -> post (f x) P) -> post (mapM f l) (Forall P).
  Proof.
    induction l as [|x l IH]; intros H; cbn [mapM]; [constructor|].
    apply (post_bind P); [apply H; left; reflexivity|]. intros y Hy.
    apply (post_bind (Forall P)); [apply IH; intros z Hz; apply H; right; exact Hz|].
    intros ys Hys. constructor; assumption.
  Qed.
End Post.

(* totality without a claim about the value *)
Notation returns r := (post False r (fun _ => True)).

Lemma returns_bind : forall {A B} (r : res A) (f : A -> res B),
  returns r -> (forall a, returns (f a)) ->
  returns (match r with
           | Ok a => f a
           | ErrOOB i n => ErrOOB i n
           | ErrFuel => ErrFuel
           | ErrExn c => ErrExn c
           end).
Proof. intros A B r f H1 H2. apply (post_bind False (fun _ => True)); auto. Qed.

Lemma returns_map : forall {A B} (r : res A) (g : A -> B),
  returns r ->
  returns (match r with
           | Ok a => Ok (g a)
           | ErrOOB i n => ErrOOB i n
           | ErrFuel => ErrFuel
           | ErrExn c => ErrExn c
           end).
Proof. intros A B r g H. apply returns_bind; [exact H | intro; exact I]. Qed.

Lemma returns_mapM : forall {A B} (f : A -> res B) l, (forall x, In x l -> returns (f x)) -> returns (mapM f l).
Proof. intros A B f l H. apply (post_weaken False _ (Forall (fun _ => True))); [apply post_mapM; exact H | auto]. Qed.

Lemma returns_ex : forall {A} (r : res A), returns r -> exists a, r = Ok a.
Proof. destruct r; simpl; intro H; try contradiction. eauto. Qed.

Lemma returns_iff : forall {A} (r : res A) P, post False r P <-> exists a, r = Ok a /\ P a.
Proof.
  intros A r P. destruct r; simpl; split; try contradiction; try (intros (b & E & _); discriminate).
  - eauto.
  - intros (b & E & H). apply Ok_inj in E. subst. exact H.
Qed.
Lemma yields_iff : forall {A} (r : res A) P, post True r P <-> forall a, r = Ok a -> P a.
Proof.
  intros A r P. destruct r; simpl; split; auto; try discriminate.
  intros H b E. apply Ok_inj in E. subst. exact H.
Qed.

Lemma tbl_find_prop : forall {A} (P : A -> bool) code (l : list (N * A)) v,
  forallb (fun q => P (snd q)) l = true -> tbl_find code l = Some v -> P v = true.
Proof.
  induction l as [|[c w] l IHl]; intros v F H; cbn [tbl_find] in H; [discriminate|].
  cbn [forallb snd] in F. apply andb_prop in F. destruct F as [F1 F2].
  destruct (N.eqb c code); [inversion H; subst; exact F1 | apply IHl; assumption].
Qed.

Lemma pmap_insert_in : forall k v m p, In p (pmap_insert k v m) -> p = (k, v) \/ In p m.
Proof.
  induction m as [|[k' v'] m IH]; intros p H; simpl in H.
  - destruct H as [<-|[]]. left; reflexivity.
  - destruct (printer_lt k' k).
    + destruct H as [<-|H]; [right; left; reflexivity|].
      destruct (IH p H) as [->|H']; [left; reflexivity | right; right; exact H'].
    + destruct (printer_lt k k'); [destruct H as [<-|H]; [left; reflexivity | right; exact H] | right; exact H].
Qed.
Lemma pmap_of_incl : forall d p, In p (pmap_of d) -> In p d.
Proof.
  intros d p. unfold pmap_of.
  assert (forall m, In p (fold_left (fun m q => pmap_insert (fst q) (snd q) m) d m) -> In p m \/ In p d) as Hgen.
  { induction d as [|[k v] d IH]; intros m H; simpl in H; [left; exact H|].
    destruct (IH _ H) as [H1|H1]; [|right; right; exact H1].
    cbn [fst snd] in H1. destruct (pmap_insert_in _ _ _ _ H1) as [->|H2]; [right; left; reflexivity | left; exact H2]. }
  intro H. destruct (Hgen [] H) as [[]|H']. exact H'.
Qed.
