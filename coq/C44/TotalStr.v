(* C44 -- totality of the StrPrinter family model (str / Julia / SBML / LaTeX flavours): on every
   tree whose Constants are the five library constants, whose field-less set classes, Contains /
   Complement codes and ConditionSet / ImageSet arities are the library's, and whose Derivatives
   have at least one symbol, every flavour returns a text; the fuel always suffices. *)
From Coq Require Import List Bool NArith ZArith Lia.
Import ListNotations.
From SE Require Import Expr.Unfold C44.C44Spec C44.Results C44.TotalFuel.
Local Open Scope N_scope.

Definition sp_node_sup (e : expr) : bool :=
  match e with
  | EConst nm => known_constant nm
  | EFN code l =>
      (if code =? TC_ConditionSet then Nat.eqb (length l) 2 else true)
      && (if code =? TC_ImageSet then Nat.eqb (length l) 3 else true)
  | ELex code _ _ => (code =? TC_Contains) || (code =? TC_Complement)
  | EDeriv _ xs => negb (Nat.eqb (length xs) 0)
  | EAtom code =>
      (code =? TC_Complexes) || (code =? TC_Reals) || (code =? TC_Rationals) || (code =? TC_Integers)
      || (code =? TC_Naturals) || (code =? TC_Naturals0) || (code =? TC_EmptySet) || (code =? TC_UniversalSet)
  | _ => true
  end.
Definition sp_supported (e : expr) : bool := all_nodes sp_node_sup e.

Lemma rbind_returns : forall {A B} (r : res A) (f : A -> res B),
  returns r -> (forall a, returns (f a)) -> returns (rbind r f).
Proof. exact @returns_bind. Qed.

(* [auto with total] proves that a rule returns by going through its binds; [returns_bind] is restated
   with [rbind] folded because auto does not unfold it to find the match *)
#[local] Hint Resolve rbind_returns returns_mapM : total.
#[local] Hint Extern 0 (post _ (Ok _) _) => exact I : total.

Section Rec.
  Variable rec : flavour -> expr -> res (list ltok).

  (* x is printed in every flavour: numbers without recursion *)
  Notation runs x := (forall fl, returns (StrModel.app rec fl x)).

  Lemma runs_num : forall n, runs (ENum n).
  Proof. intros n fl. exact I. Qed.
  Lemma runs_rec : forall x, (forall fl, returns (rec fl x)) -> runs x.
  Proof. intros x H fl. destruct x; try apply H. exact I. Qed.

  Lemma paren_lt_total : forall fl x p, runs x -> returns (paren_lt rec fl x p).
  Proof. intros. unfold paren_lt. auto with total. Qed.
  Lemma paren_le_total : forall fl x p, runs x -> returns (paren_le rec fl x p).
  Proof. intros. unfold paren_le. auto with total. Qed.

  Lemma app_vec_total : forall fl l, (forall x, In x l -> runs x) -> returns (app_vec rec fl l).
  Proof. intros. unfold app_vec. auto with total. Qed.

  #[local] Hint Resolve runs_num paren_lt_total paren_le_total app_vec_total : total.

  Lemma print_pow_total : forall fl a c, runs a -> runs c -> returns (print_pow rec fl a c).
  Proof.
    intros fl a c Ha Hc. unfold print_pow.
    destruct fl; destruct (is_E a); auto with total; destruct (is_half c); auto with total.
    assert (Hdef : returns (rbind (paren_le rec FLatex a PREC_Pow) (fun sa =>
                     rbind (StrModel.app rec FLatex c) (fun sc =>
                       Ok (sa ++ (if Nat.ltb 1 (lbytes sc) then t_caretbr ++ sc ++ t_rbrace else t_caret ++ sc))))))
      by auto with total.
    destruct c as [[z|[|[pp|pp|]|pp] q|rn rd imn imd|bb|re im|dd|]| | | | | | | | | | | | | | | | |];
      auto with total.
  Qed.

  Lemma add_term_total : forall fl k v, runs k -> returns (add_term rec fl k v).
  Proof.
    intros fl k v Hk. unfold add_term. destruct (num_is v 1); [|destruct (num_is v (-1))]; auto 6 with total.
  Qed.

  Lemma add_terms_total : forall fl d first,
    (forall p, In p d -> runs (fst p)) -> returns (add_terms rec fl first d).
  Proof.
    induction d as [|[k v] d IH]; intros first H; cbn [add_terms]; [exact I|].
    apply rbind_returns; [apply add_term_total, (H (k, v)); left; reflexivity | intro t].
    apply rbind_returns; [apply IH; intros p Hp; apply H; right; exact Hp | intro; exact I].
  Qed.

  Lemma print_add_total : forall fl c d,
    (forall p, In p d -> runs (fst p)) -> returns (print_add rec fl c d).
  Proof.
    intros fl c d H. unfold print_add.
    assert (Hs : forall p, In p (pmap_of d) -> runs (fst p)) by (intros p Hp; apply H, pmap_of_incl, Hp).
    destruct (negb (num_is c 0)); auto using add_terms_total with total.
  Qed.

  #[local] Hint Resolve print_pow_total : total.

  Lemma mul_factors_total : forall fl d o num o2 den,
    (forall p, In p d -> runs (fst p) /\ runs (snd p)) -> returns (mul_factors rec fl d o num o2 den).
  Proof.
    induction d as [|[b x] d IH]; intros o num o2 den H; cbn [mul_factors]; [exact I|].
    destruct (H (b, x) (or_introl eq_refl)) as [Hb Hx]. cbn [fst snd] in *.
    assert (Hd : forall p, In p d -> runs (fst p) /\ runs (snd p)) by (intros p Hp; apply H; right; exact Hp).
    destruct (if is_E b then None else neg_rational_exp x) as [nx|]; apply rbind_returns; auto.
    - destruct (num_is nx 1); auto with total.
    - destruct (is_num_int x 1); auto with total.
  Qed.

  Lemma print_mul_node_total : forall fl c d,
    (forall p, In p d -> runs (fst p) /\ runs (snd p)) -> returns (print_mul_node rec fl c d).
  Proof.
    intros fl c d H. unfold print_mul_node. apply rbind_returns.
    - destruct (num_is c (-1)); [exact I|]. destruct (negb (num_is c 1)); [|exact I].
      destruct (negb (split_mul_coef fl)); [auto with total|].
      destruct (coef_numer_denom c) as [numer denom].
      destruct (negb (num_is numer 1)), (negb (num_is denom 1)); auto 7 with total.
    - intros [[[o0 num0] o20] den0]. apply rbind_returns; [apply mul_factors_total; exact H|].
      intros [[[o num] o2] [|[|den]]]; exact I.
  Qed.

  Lemma print_function_total : forall fl code args,
    (forall x, In x args -> runs x) -> returns (print_function rec fl code args).
  Proof.
    intros fl code args H. unfold print_function. apply rbind_returns; [auto with total | intro s].
    destruct fl; try exact I. destruct (code =? TC_Gamma); exact I.
  Qed.

  Lemma print_logic_total : forall fl code args,
    (forall x, In x args -> runs x) -> returns (print_logic rec fl code args).
  Proof. intros fl code args H. unfold print_logic. destruct fl; auto 6 with total. Qed.

  Lemma deriv_groups_total : forall rest prev count,
    runs prev -> (forall x, In x rest -> runs x) -> returns (deriv_groups rec prev count rest).
  Proof.
    induction rest as [|x rest IH]; intros prev count Hp Hr; cbn [deriv_groups]; [auto with total|].
    assert (Hi : forall n, returns (deriv_groups rec x n rest))
      by (intro n; apply IH; [apply Hr; left; reflexivity | intros y Hy; apply Hr; right; exact Hy]).
    destruct (negb (expr_eqb prev x)); auto with total.
  Qed.

  #[local] Hint Resolve print_function_total print_logic_total deriv_groups_total : total.
  (* in [print_node_total] the sub-terms a rule prints are children of the node, so each of them runs
     by the hypothesis on the children; [simpl; auto] finds it in the list [children e] *)
  #[local] Hint Extern 2 (post False (StrModel.app _ _ _) _) =>
    match goal with Hc : forall x, In x _ -> _ |- _ => apply Hc; simpl; auto end : total.

  Lemma print_node_total : forall fl e,
    sp_node_sup e = true -> (forall x, In x (children e) -> runs x) -> returns (print_node rec fl e).
  Proof.
    intros fl e Gn Hc.
    destruct e as [n|nm|nm idx|nm|c d|c d|b x|code a|code a c|code args|nm args|code a c|a xs|a d|pl|bv|s x lo ro|code];
      cbn [print_node sp_node_sup children] in *.
    - exact I.
    - destruct fl; exact I.
    - destruct fl; exact I.
    - unfold p_constant, known_constant in *. destruct fl; try exact I; try (destruct (beq nm name_E); exact I).
      destruct (beq nm nm_pi); [exact I|]. destruct (beq nm name_E); [exact I|].
      destruct (beq nm nm_EulerGamma); [exact I|]. destruct (beq nm nm_Catalan); [exact I|].
      destruct (beq nm nm_GoldenRatio); [exact I | discriminate].
    - (* EAdd *) apply print_add_total. intros p Hp. apply Hc, in_map, Hp.
    - (* EMul *) apply print_mul_node_total. intros p Hp. split; apply Hc, (in_flat _ _ Hp).
    - (* EPow *) auto with total.
    - (* EF1 *)
      destruct (code =? TC_Not); [destruct fl; auto with total|].
      destruct fl; auto with total.
      destruct (code =? TC_Abs); [auto with total|]. destruct (code =? TC_Floor); [auto with total|].
      destruct (code =? TC_Ceiling); auto with total.
    - (* EF2 *)
      destruct (rel_op fl code); [destruct fl|]; auto 7 with total.
    - (* EFN *)
      apply andb_prop in Gn. destruct Gn as [A1 A2].
      destruct ((code =? TC_And) || (code =? TC_Or) || (code =? TC_Xor)); [auto with total|].
      destruct (code =? TC_FiniteSet); [destruct fl; auto with total|].
      destruct (code =? TC_Union); [auto with total|].
      destruct (code =? TC_Intersection); [destruct fl; auto with total|].
      destruct (code =? TC_ConditionSet).
      { destruct args as [|sym [|cond [|? ?]]]; try discriminate.
        do 2 (apply rbind_returns; [auto with total | intro]). destruct fl; exact I. }
      destruct (code =? TC_ImageSet); [|auto with total].
      destruct args as [|sym [|ex [|base [|? ?]]]]; try discriminate.
      do 3 (apply rbind_returns; [auto with total | intro]). destruct fl; exact I.
    - (* EFunSym *) auto with total.
    - (* ELex *)
      destruct (code =? TC_Contains).
      { do 2 (apply rbind_returns; [auto with total | intro]). destruct fl; exact I. }
      destruct (code =? TC_Complement); [auto with total | discriminate].
    - (* EDeriv *)
      destruct fl; auto 6 with total.
      destruct xs as [|x0 [|x1 xr]]; [discriminate | |]; apply rbind_returns; auto with total.
    - (* ESubs *)
      assert (Hd : forall p, In p d -> runs (fst p) /\ runs (snd p))
        by (intros p Hp; split; apply Hc; right; apply (in_flat _ _ Hp)).
      assert (Hm : forall fl' {T} (g : list ltok -> list ltok -> T),
                 returns (mapM (fun p => rbind (StrModel.app rec fl' (fst p)) (fun sk =>
                                          rbind (StrModel.app rec fl' (snd p)) (fun sv => Ok (g sk sv)))) d)).
      { intros fl' T g. apply returns_mapM. intros p Hp. destruct (Hd p Hp). auto with total. }
      destruct fl; auto with total.
    - (* EPw *)
      assert (Hd : forall p, In p pl -> runs (fst p) /\ runs (snd p))
        by (intros p Hp; split; apply Hc, (in_flat _ _ Hp)).
      clear Hc. destruct fl; apply rbind_returns; try (intro; exact I).
      + apply returns_mapM. intros p Hp. destruct (Hd p Hp). auto with total.
      + apply returns_mapM. intros p Hp. destruct (Hd p Hp). auto with total.
      + induction pl as [|[x0 c0] l IHl]; [exact I|].
        destruct (Hd (x0, c0) (or_introl eq_refl)) as [H1 H2]. cbn [fst snd] in H1, H2.
        specialize (IHl (fun p Hp => Hd p (or_intror Hp))).
        apply rbind_returns; [apply H1 | intro]. apply rbind_returns; [|intro; auto with total].
        destruct l; [destruct (is_true c0)|]; auto with total.
      + induction pl as [|[x0 c0] l IHl]; [exact I|].
        destruct (Hd (x0, c0) (or_introl eq_refl)) as [H1 H2]. cbn [fst snd] in H1, H2.
        specialize (IHl (fun p Hp => Hd p (or_intror Hp))).
        destruct l; [apply rbind_returns; [apply H1 | intro]; destruct (is_true c0)|]; auto 6 with total.
    - destruct fl; exact I.
    - (* EInterval *)
      do 2 (apply rbind_returns; [auto with total | intro]). destruct fl; exact I.
    - unfold p_atom.
      destruct (code =? TC_Complexes); [exact I|]. destruct (code =? TC_Reals); [exact I|].
      destruct (code =? TC_Rationals); [exact I|]. destruct (code =? TC_Integers); [exact I|].
      destruct (code =? TC_Naturals); [exact I|]. destruct (code =? TC_Naturals0); [exact I|].
      destruct (code =? TC_EmptySet); [exact I|]. destruct (code =? TC_UniversalSet); [exact I | discriminate].
  Qed.
End Rec.

(* str(e), julia_str(e), sbml(e), latex(e) all return *)
Theorem sp_total : forall fl e, sp_supported e = true -> exists l, sp_toks fl e = Ok l.
Proof.
  intros fl e G. apply returns_ex. revert fl.
  apply (fuel_suffices _ (fun rec e fl => print_node (fun fl x => rec x fl) fl e) (fun f e fl => sp_fuel f fl e)
           sp_node_sup (fun r => forall fl, returns (r fl))); [reflexivity | | lia | exact G].
  clear e G. intros rec e G H fl. apply print_node_total; [exact (all_nodes_node _ _ G)|].
  intros x Hx. apply runs_rec. exact (smaller_children _ _ e G H x Hx).
Qed.
