(* C44 -- coverage of the class table (Coverage.v): every class of type_codes.inc is either modelled
   or listed as outside the AST; on every modelled class each printer model behaves as the rule
   table says (swept over one node per class); and "throws by design" / "fallback" hold for EVERY
   node of such a class, whatever its children. *)
From Coq Require Import List Bool NArith ZArith Lia.
Import ListNotations.
From SE Require Import C44.C44Spec C44.Coverage.
Local Open Scope N_scope.

(* what the sweep checks of a code *)
Definition cov_ok (c : N) : bool :=
  if modelled c then
    negb (memN c outside_codes) && (type_code (sample_of c) =? c) && class_ok (sample_of c)
    && forallb (fun p => rule_eqb (run_printer p (sample_of c)) (rule_of p c)) all_printers
  else memN c outside_codes && forallb (fun p => rule_eqb (rule_of p c) ROutside) all_printers.

Lemma cov_sweep : forallb cov_ok all_codes = true.
Proof. vm_compute. reflexivity. Qed.

Lemma in_all_codes : forall c, c < TC_Count -> In c all_codes.
Proof.
  intros c H. unfold all_codes. apply in_map_iff. exists (N.to_nat c). split.
  - apply N2Nat.id.
  - apply in_seq. change TC_Count with 122 in *. lia.
Qed.

Lemma rule_eqb_eq : forall a b, rule_eqb a b = true -> a = b.
Proof. destruct a, b; simpl; intro H; try reflexivity; discriminate. Qed.

Lemma all_printers_spec : forall (f : printer -> bool), forallb f all_printers = true -> forall p, f p = true.
Proof. intros f H p. apply (proj1 (forallb_forall _ _) H). destruct p; simpl; auto 6. Qed.

Theorem coverage : forall c, c < TC_Count ->
  (modelled c = true /\ memN c outside_codes = false /\
   type_code (sample_of c) = c /\ class_ok (sample_of c) = true /\
   forall p, run_printer p (sample_of c) = rule_of p c)
  \/ (modelled c = false /\ memN c outside_codes = true /\ forall p, rule_of p c = ROutside).
Proof.
  intros c Hc. pose proof (proj1 (forallb_forall _ _) cov_sweep c (in_all_codes c Hc)) as A.
  unfold cov_ok in A. destruct (modelled c); [left | right].
  - apply andb_prop in A. destruct A as [A A4]. apply andb_prop in A. destruct A as [A A3].
    apply andb_prop in A. destruct A as [A1 A2].
    repeat split; [apply negb_true_iff, A1 | apply N.eqb_eq, A2 | exact A3|].
    intro p. apply rule_eqb_eq, (all_printers_spec _ A4).
  - apply andb_prop in A. destruct A as [A1 A2]. repeat split; [exact A1|].
    intro p. apply rule_eqb_eq, (all_printers_spec _ A2).
Qed.

(* of the codes in a list, those of constructor kind k all satisfy q: so does a listed code of kind k *)
Lemma listed_kind : forall (l : list N) c k (q : N -> bool),
  memN c l = true -> forallb (fun x => negb (kind44 x =? k) || q x) l = true -> kind44 c =? k = true ->
  q c = true.
Proof.
  intros l c k q M F Hk. unfold memN in M. apply existsb_exists in M. destruct M as (x & Hx & E).
  apply N.eqb_eq in E. subst x. pose proof (proj1 (forallb_forall _ _) F c Hx) as P. cbv beta in P.
  rewrite Hk in P. exact P.
Qed.

Theorem mathml_throws_by_design : forall rec e,
  class_ok e = true -> rule_of PMathML (type_code e) = RThrows ->
  mm_node rec e = ErrExn EXN_SYMENGINE.
Proof.
  intros rec e Hc Hr. unfold rule_of in Hr.
  destruct (negb (modelled (type_code e))); [discriminate|].
  destruct (memN (type_code e) mathml_throws) eqn:M; [|discriminate]. unfold class_ok in Hc.
  pose proof (fun q F => listed_kind _ _ (ctor_kind e) q M F Hc) as K.
  destruct e; cbn [type_code ctor_kind] in *; try discriminate M; try discriminate (K (fun _ => false) eq_refl).
  - destruct n; first [discriminate M | reflexivity].
  - pose proof (K (fun c => c =? TC_Intersection) eq_refl) as E. apply N.eqb_eq in E. subst. reflexivity.
  - reflexivity.
  - pose proof (K (fun c => negb ((c =? TC_EmptySet) || (c =? TC_Complexes) || (c =? TC_Reals)
                               || (c =? TC_Rationals) || (c =? TC_Integers))) eq_refl) as E.
    cbv beta in E. cbn [mm_node]. unfold mm_atom.
    destruct (code =? TC_EmptySet), (code =? TC_Complexes), (code =? TC_Reals), (code =? TC_Rationals),
      (code =? TC_Integers); first [discriminate E | reflexivity].
Qed.

Theorem unicode_fallback_by_design : forall rec e,
  class_ok e = true -> rule_of PUnicode (type_code e) = RFallback ->
  u_node rec e = ErrExn EXN_FALLBACK.
Proof.
  intros rec e Hc Hr. unfold rule_of in Hr.
  destruct (negb (modelled (type_code e))); [discriminate|].
  destruct (memN (type_code e) unicode_fallback) eqn:M; [|discriminate]. unfold class_ok in Hc.
  pose proof (fun q F => listed_kind _ _ (ctor_kind e) q M F Hc) as K.
  destruct e; cbn [type_code ctor_kind] in *; try reflexivity; try discriminate M;
    try discriminate (K (fun _ => false) eq_refl).
Qed.
