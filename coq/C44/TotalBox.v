(* C44 -- totality of the UnicodePrinter model: on every tree of the classes with a rule the printer
   returns a box with at least one line -- in particular no StringBox operation indexes an empty
   line vector (ErrOOB) and the fuel suffices. *)
From Coq Require Import List Bool NArith ZArith Lia.
Import ListNotations.
From SE Require Import Expr.Unfold C44.C44Spec C44.Results C44.TotalFuel.
Local Open Scope N_scope.

Definition pos (b : sbox) : Prop := lines b <> [].

Definition u_node_sup (e : expr) : bool :=
  match e with
  | EConst nm => known_constant nm
  | EAdd c d => negb (num_is c 0) || negb (Nat.eqb (length d) 0)
  | EFN code l =>
      (if (code =? TC_And) || (code =? TC_Or) || (code =? TC_Xor) || (code =? TC_Union)
          || (code =? TC_Intersection) || (code =? TC_FiniteSet)
       then negb (Nat.eqb (length l) 0) else true)
      && (if code =? TC_ConditionSet then Nat.eqb (length l) 2 else true)
      && (if code =? TC_ImageSet then Nat.eqb (length l) 3 else true)
  | ELex code _ _ => (code =? TC_Contains) || (code =? TC_Complement)
  | EDeriv _ _ | ESubs _ _ => false
  | EPw l => negb (Nat.eqb (length l) 0)
  | EAtom code =>
      (code =? TC_Complexes) || (code =? TC_Reals) || (code =? TC_Rationals) || (code =? TC_Integers)
      || (code =? TC_Naturals) || (code =? TC_Naturals0) || (code =? TC_EmptySet) || (code =? TC_UniversalSet)
  | _ => true
  end.
Definition u_supported (e : expr) : bool := all_nodes u_node_sup e.

Lemma zip_app_length : forall x y, length (zip_app x y) = Nat.min (length x) (length y).
Proof. induction x as [|l x IH]; destruct y as [|m y]; simpl; auto. Qed.

Lemma pos_length : forall b, pos b <-> (0 < length (lines b))%nat.
Proof. intro b. unfold pos. destruct (lines b); simpl; split; intro H; try lia; try congruence; try discriminate. Qed.

Lemma add_right_lines : forall a o,
  length (lines (fst (add_right a o))) = Nat.max (length (lines a)) (length (lines o)).
Proof.
  intros a o. unfold add_right.
  set (ts := length (lines a)). set (os := length (lines o)).
  set (diff := (Nat.max os ts - Nat.min os ts)%nat).
  assert (Hd : (Nat.div diff 2 + Nat.modulo diff 2 + Nat.div diff 2 = diff)%nat).
  { pose proof (Nat.div_mod diff 2). lia. }
  destruct (Nat.ltb ts os) eqn:E; cbn [fst lines]; rewrite zip_app_length; cbn [lines];
    rewrite ?app_length, ?repeat_length; fold ts os.
  - apply Nat.ltb_lt in E. unfold diff in *. lia.
  - apply Nat.ltb_ge in E. unfold diff in *. lia.
Qed.

Lemma pos_add_right : forall a o, pos a \/ pos o -> pos (fst (add_right a o)).
Proof. intros a o H. rewrite pos_length in *. rewrite add_right_lines. rewrite !pos_length in H. lia. Qed.

Lemma pos_add_below : forall a o, pos a \/ pos o -> pos (fst (add_below a o)).
Proof.
  intros a o H. rewrite pos_length. rewrite !pos_length in H. unfold add_below, pad_lines.
  destruct (width a <? width o); [|destruct (width o <? width a)]; cbn [fst lines];
    rewrite app_length, ?map_length; lia.
Qed.
Lemma pos_add_below_line : forall a o, pos (fst (add_below_unicode_line a o)).
Proof.
  intros a o. unfold add_below_unicode_line. apply pos_add_below. left. apply pos_add_below. right.
  unfold pos, box_w. simpl. discriminate.
Qed.
Lemma pos_add_power : forall a o, pos a \/ pos o -> pos (add_power a o).
Proof.
  intros a o H. rewrite pos_length. rewrite !pos_length in H. unfold add_power. cbn [lines].
  rewrite app_length, rev_length, !map_length. lia.
Qed.
Lemma pos_enclose_abs : forall b, pos b -> pos (enclose_abs b).
Proof. intros b H. rewrite pos_length in *. unfold enclose_abs. cbn [lines]. rewrite map_length. exact H. Qed.
Lemma pos_enclose_sqrt : forall b, pos (enclose_sqrt b).
Proof. intro b. unfold pos, enclose_sqrt. cbn [lines]. discriminate. Qed.
Lemma pos_box_s : forall s, pos (box_s s).
Proof. intro. unfold pos, box_s. simpl. discriminate. Qed.
Lemma pos_box_w : forall s w, pos (box_w s w).
Proof. intros. unfold pos, box_w. simpl. discriminate. Qed.

Lemma rthen_pos : forall {B} (r : res sbox) (f : sbox -> res B) (Q : B -> Prop),
  post False r pos -> (forall a, pos a -> post False (f a) Q) -> post False (rthen r f) Q.
Proof. intros B r f Q. exact (post_bind False pos r f Q). Qed.

(* [auto with total] proves that a rule returns a box with a line: [rthen_pos] goes through a sequence
   of steps, and each StringBox operation keeps (or makes) a line *)
#[local] Hint Resolve rthen_pos pos_add_right pos_add_below pos_add_below_line pos_add_power pos_enclose_abs
  pos_enclose_sqrt pos_box_s pos_box_w : total.
#[local] Hint Extern 1 (post _ (Ok _) _) => cbn [post fst snd] : total.

Lemma bracket_side_total : forall put one top mid bot b, pos b ->
  post False (bracket_side put one top mid bot b) pos.
Proof.
  intros put one top mid bot b H. unfold bracket_side, pos in *.
  destruct (lines b) as [|l [|l2 ls]]; [congruence | |]; cbn [post lines]; try discriminate.
  unfold deco3. destruct (rev (l2 :: ls)); discriminate.
Qed.
Lemma enclose_parens_total : forall b, pos b -> post False (enclose_parens b) pos.
Proof. intros b H. apply rthen_pos; [|intros b1]; apply bracket_side_total. exact H. Qed.
Lemma curly_side_total : forall left b, pos b -> post False (curly_side left b) pos.
Proof.
  intros left b H. unfold curly_side, pos in *.
  destruct (lines b) as [|l0 [|l1 [|l2 ls]]]; [congruence | | |]; try (cbn [post lines]; discriminate).
  destruct (rev (l1 :: l2 :: ls)) as [|last rmid] eqn:E; [|cbn [post lines]; discriminate].
  apply (f_equal (@length _)) in E. rewrite rev_length in E. discriminate.
Qed.
Lemma enclose_curlies_total : forall b, pos b -> post False (enclose_curlies b) pos.
Proof. intros b H. apply rthen_pos; [|intros b1]; apply curly_side_total. exact H. Qed.
Lemma enclose_floor_total : forall b, pos b -> post False (enclose_floor b) pos.
Proof.
  intros b H. unfold enclose_floor, pos in *. destruct (rev (lines b)) as [|last rinit] eqn:E.
  - apply (f_equal (@length _)) in E. rewrite rev_length in E. destruct (lines b); [congruence | discriminate].
  - cbn [post lines]. destruct (List.map _ (rev rinit)); discriminate.
Qed.
Lemma enclose_ceiling_total : forall b, pos b -> post False (enclose_ceiling b) pos.
Proof. intros b H. unfold enclose_ceiling, pos in *. destruct (lines b); [congruence | cbn [post lines]; discriminate]. Qed.

Lemma pos_unum : forall n, pos (unum n).
Proof.
  destruct n; cbn [unum]; try apply pos_box_s; try apply pos_box_w.
  - apply pos_add_below_line.
  - unfold u_complex. destruct (if negb (rn =? 0)%Z then _ else _) as [s m]. apply pos_box_w.
  - destruct (dir <? 0)%Z; [apply pos_box_w|]. destruct (0 <? dir)%Z; apply pos_box_w.
Qed.

#[local] Hint Resolve bracket_side_total enclose_parens_total curly_side_total enclose_curlies_total
  enclose_floor_total enclose_ceiling_total pos_unum : total.

Section Rec.
  Variable rec : expr -> res sbox.

  (* x is printed as a box with a line: numbers without recursion *)
  Notation runs x := (post False (uapp rec x) pos).

  Lemma runs_num : forall n, runs (ENum n).
  Proof. intro n. apply pos_unum. Qed.
  Lemma runs_rec : forall x, post False (rec x) pos -> runs x.
  Proof. intros x H. destruct x; try exact H. apply pos_unum. Qed.

  Lemma uparen_lt_total : forall x p, runs x -> post False (uparen_lt rec x p) pos.
  Proof. intros x p H. apply rthen_pos; [exact H | intros b Pb]. destruct (precedence x <? p); auto with total. Qed.
  Lemma uparen_le_total : forall x p, runs x -> post False (uparen_le rec x p) pos.
  Proof. intros x p H. apply rthen_pos; [exact H | intros b Pb]. destruct (precedence x <=? p); auto with total. Qed.

  #[local] Hint Resolve runs_num uparen_lt_total uparen_le_total : total.

  Lemma u_pow_total : forall a c, runs a -> runs c -> post False (u_pow rec a c) pos.
  Proof. intros a c Ha Hc. unfold u_pow. destruct (is_half c); auto 7 with total. Qed.

  (* the joined box has a line as soon as the start box has one or there is an item *)
  Lemma u_join_total : forall l box sep first, (forall x, In x l -> runs x) ->
    post False (u_join rec box sep first l) (fun r => pos box \/ l <> [] -> pos (fst r)).
  Proof.
    induction l as [|x l IH]; intros box sep first H; cbn [u_join].
    - intros [P|P]; [exact P | congruence].
    - destruct (if first then (box, sep) else add_right box sep) as [box1 sep1].
      apply rthen_pos; [apply H; left; reflexivity | intros b Pb].
      eapply post_weaken; [apply IH; intros y Hy; apply H; right; exact Hy|].
      cbv beta. auto with total.
  Qed.

  Lemma uapp_vec_total : forall l, (forall x, In x l -> runs x) -> post False (uapp_vec rec l) pos.
  Proof.
    intros l H. eapply post_bind; [apply (u_join_total l _ _ _ H) | intros r Pr]. apply Pr. auto with total.
  Qed.

  Lemma u_infix_total : forall op l, l <> [] -> (forall x, In x l -> runs x) -> post False (u_infix rec op l) pos.
  Proof.
    intros op l Hne H. unfold u_infix. destruct l as [|x l]; [congruence|].
    apply rthen_pos; [apply H; left; reflexivity | intros b Pb].
    eapply post_bind; [apply u_join_total; intros y Hy; apply H; right; exact Hy | intros r Pr]. apply Pr. auto.
  Qed.

  Lemma u_bin_total : forall op a c, runs a -> runs c -> post False (u_bin rec op a c) pos.
  Proof. intros op a c Ha Hc. unfold u_bin. auto 7 with total. Qed.

  #[local] Hint Resolve u_pow_total uapp_vec_total u_bin_total : total.

  Lemma u_add_terms_total : forall d box first minus, (forall p, In p d -> runs (fst p)) ->
    post False (u_add_terms rec box first minus d) (fun b => pos box \/ d <> [] -> pos b).
  Proof.
    induction d as [|[k v] d IH]; intros box first minus H; cbn [u_add_terms].
    - intros [P|P]; [exact P | congruence].
    - pose proof (H (k, v) (or_introl eq_refl)) as Hk. cbn [fst] in Hk.
      assert (Hd : forall p, In p d -> runs (fst p)) by (intros p Hp; apply H; right; exact Hp).
      apply (post_bind False (fun tm => pos (fst tm))).
      + destruct (num_is v 1); [|destruct (num_is v (-1))]; auto 8 with total.
      + intros [t minus1] Pt. cbn [fst] in Pt.
        destruct (negb first); [destruct minus1|];
          (eapply post_weaken; [apply IH; exact Hd|]); cbv beta; auto 6 with total.
  Qed.

  Lemma u_mul_factors_total : forall d box1 box2 mb f1 f2 num den,
    (forall p, In p d -> runs (fst p) /\ runs (snd p)) ->
    (num = true -> pos box1) -> ((0 < den)%nat -> pos box2) ->
    post False (u_mul_factors rec d box1 box2 mb f1 f2 num den)
      (fun st => let '(box1', box2', _, num', den') := st in
                 (num' = true -> pos box1') /\ ((0 < den')%nat -> pos box2')).
  Proof.
    induction d as [|[b x] d IH]; intros box1 box2 mb f1 f2 num den H I1 I2; cbn [u_mul_factors].
    - split; assumption.
    - destruct (H (b, x) (or_introl eq_refl)) as [Hb Hx]. cbn [fst snd] in Hb, Hx.
      assert (Hd : forall p, In p d -> runs (fst p) /\ runs (snd p)) by (intros p Hp; apply H; right; exact Hp).
      destruct (neg_rational_exp x) as [nx|].
      + destruct (if negb f2 then add_right box2 mb else (box2, mb)) as [box2a mb1].
        apply rthen_pos; [destruct (num_is nx 1); auto with total | intros t Pt].
        apply IH; auto with total.
      + destruct (if negb f1 then add_right box1 mb else (box1, mb)) as [box1a mb1].
        apply rthen_pos; [destruct (is_num_int x 1); auto with total | intros t Pt].
        apply IH; auto with total.
  Qed.

  Lemma u_mul_total : forall c d,
    (forall p, In p d -> runs (fst p) /\ runs (snd p)) -> post False (u_mul rec c d) pos.
  Proof.
    intros c d H. unfold u_mul.
    apply (post_bind False (fun st => let '(b1, b2, _, _, num0, den0) := st in
                                      (num0 = true -> pos b1) /\ ((0 < den0)%nat -> pos b2))).
    - destruct (num_is c (-1)); [split; [discriminate | lia]|].
      destruct (negb (num_is c 1)); [|split; [discriminate | lia]].
      destruct (coef_numer_denom c) as [numer denom].
      apply (post_bind False (fun n3 => snd n3 = true -> pos (fst (fst n3)))).
      { destruct (negb (num_is numer 1)); [|discriminate].
        apply rthen_pos; [auto with total | intros b Pb _; exact Pb]. }
      intros [[b1 f1] n1] P1.
      apply (post_bind False (fun d3 => (0 < snd d3)%nat -> pos (fst (fst d3)))).
      { destruct (negb (num_is denom 1)); [|cbn; lia].
        apply rthen_pos; [auto with total | intros b Pb _; exact Pb]. }
      intros [[b2 f2] d2] P2. split; assumption.
    - intros [[[[[b1 b2] f1] f2] num0] den0] [I1 I2].
      eapply post_bind; [apply (u_mul_factors_total d b1 b2 mulbox0 f1 f2 num0 den0 H I1 I2)|].
      intros [[[[box1 box2] mb] num] den] [J1 J2].
      assert (P1 : pos (if num then box1 else fst (add_right (fst (add_right box1 (box_s [49]))) mb)))
        by (destruct num; auto with total).
      destruct den as [|[|den]]; auto with total.
      apply rthen_pos; [apply enclose_parens_total, J2; lia | auto with total].
  Qed.

  Lemma u_function_total : forall code args, (forall x, In x args -> runs x) ->
    post False (u_function rec code args) pos.
  Proof. intros code args H. unfold u_function. destruct (unicode_name code) as [nm len]. auto 7 with total. Qed.
End Rec.

Lemma pmap_insert_ne : forall k v m, pmap_insert k v m <> [].
Proof.
  intros k v m. destruct m as [|[k' v'] m]; simpl; [discriminate|].
  destruct (printer_lt k' k); [discriminate|]. destruct (printer_lt k k'); discriminate.
Qed.
Lemma pmap_of_ne : forall d, d <> [] -> pmap_of d <> [].
Proof.
  intros d H. unfold pmap_of.
  assert (forall d m, m <> [] -> fold_left (fun m p => pmap_insert (fst p) (snd p) m) d m <> []) as Hgen.
  { induction d0 as [|q d0 IH]; intros m Hm; simpl; [exact Hm|]. apply IH. apply pmap_insert_ne. }
  destruct d as [|q d]; [congruence|]. cbn [fold_left]. apply Hgen. apply pmap_insert_ne.
Qed.

Lemma length_ne : forall {A} (l : list A), negb (Nat.eqb (length l) 0) = true -> l <> [].
Proof. intros A l H. destruct l; discriminate. Qed.

#[local] Hint Resolve u_pow_total uapp_vec_total u_bin_total u_infix_total u_function_total length_ne : total.
(* in [u_node_total] the sub-terms a rule prints are children of the node, so each of them has a box
   with a line by the hypothesis on the children; [simpl; auto] finds it in the list [children e] *)
#[local] Hint Extern 2 (post False (uapp _ _) pos) =>
  match goal with Hc : forall x, In x _ -> _ |- _ => apply Hc; simpl; auto end : total.

Lemma u_node_total : forall rec e, u_node_sup e = true ->
  (forall x, In x (children e) -> post False (uapp rec x) pos) -> post False (u_node rec e) pos.
Proof.
  intros rec e Gn Hc.
  destruct e as [n|nm|nm idx|nm|c d|c d|bs x|code a|code a c|code args|nm args|code a c|a xs|a d|pl|bv|s x lo ro|code];
    cbn [u_node u_node_sup children] in *; try discriminate; auto with total.
  - unfold u_constant, known_constant in *.
    destruct (beq nm nm_pi); [auto with total|]. destruct (beq nm name_E); [auto with total|].
    destruct (beq nm nm_EulerGamma); [auto with total|]. destruct (beq nm nm_Catalan); [auto with total|].
    destruct (beq nm nm_GoldenRatio); [auto with total | discriminate].
  - (* EAdd *)
    unfold u_add.
    assert (Hs : forall p, In p (pmap_of d) -> post False (uapp rec (fst p)) pos)
      by (intros p Hp; apply Hc, in_map, pmap_of_incl, Hp).
    destruct (negb (num_is c 0)); (eapply post_weaken; [apply u_add_terms_total; exact Hs|]); cbv beta;
      intros b Pb; apply Pb; [left; apply pos_unum | right; apply pmap_of_ne, length_ne, Gn].
  - (* EMul *) apply u_mul_total. intros p Hp. split; apply Hc, (in_flat _ _ Hp).
  - (* EF1 *)
    destruct (code =? TC_Not); [auto 7 with total|]. destruct (code =? TC_Abs); [auto with total|].
    destruct (code =? TC_Floor); [auto with total|]. destruct (code =? TC_Ceiling); auto with total.
  - (* EF2 *)
    destruct (code =? TC_Equality); [auto with total|]. destruct (code =? TC_Unequality); [auto with total|].
    destruct (code =? TC_LessThan); [auto with total|]. destruct (code =? TC_StrictLessThan); auto with total.
  - (* EFN *)
    apply andb_prop in Gn. destruct Gn as [Gn A3]. apply andb_prop in Gn. destruct Gn as [A1 A2].
    destruct (code =? TC_And); [auto with total|]. destruct (code =? TC_Or); [auto with total|].
    destruct (code =? TC_Xor); [auto with total|]. destruct (code =? TC_Union); [auto with total|].
    destruct (code =? TC_Intersection); [auto with total|].
    destruct (code =? TC_FiniteSet).
    { eapply post_bind; [apply u_join_total; exact Hc | intros r Pr]. auto with total. }
    destruct (code =? TC_ConditionSet).
    { destruct args as [|sym [|cond [|? ?]]]; try discriminate.
      auto with total. }
    destruct (code =? TC_ImageSet); [|auto with total].
    destruct args as [|sym [|ex [|base [|? ?]]]]; try discriminate.
    auto 6 with total.
  - (* EFunSym *)
    eapply post_bind; [apply u_join_total; exact Hc | intros r Pr]. auto 7 with total.
  - (* ELex *)
    destruct (code =? TC_Contains); [auto with total|]. destruct (code =? TC_Complement); [auto with total | discriminate].
  - (* EPw *)
    assert (Hd : forall p, In p pl -> post False (uapp rec (fst p)) pos /\ post False (uapp rec (snd p)) pos)
      by (intros p Hp; split; apply Hc, (in_flat _ _ Hp)).
    match goal with
    | |- context [rthen (?pieces box_e pl) add_left_curly] =>
        assert (Hp : forall l box,
                  (forall p, In p l -> post False (uapp rec (fst p)) pos /\ post False (uapp rec (snd p)) pos) ->
                  post False (pieces box l) (fun r => pos box \/ l <> [] -> pos r))
    end.
    { induction l as [|[x0 c0] l IHl]; intros box Hl.
      - intros [P|P]; [exact P | congruence].
      - destruct (Hl (x0, c0) (or_introl eq_refl)) as [H1 H2]. cbn [fst snd] in H1, H2.
        apply rthen_pos; [auto with total | intros piece Pp].
        eapply post_weaken; [apply IHl; intros p Hp; apply Hl; right; exact Hp|]. cbv beta. auto with total. }
    destruct pl as [|p0 pl0]; [discriminate|]. apply rthen_pos; [|exact (curly_side_total true)].
    refine (post_weaken False _ _ _ (Hp (p0 :: pl0) box_e Hd) _). intros r Pr. apply Pr. right. discriminate.
  - (* EInterval *)
    apply rthen_pos; [auto with total | intros b Pb].
    apply rthen_pos; [destruct lo; apply bracket_side_total, Pb | intros b1 P1].
    destruct ro; apply bracket_side_total, P1.
  - unfold u_atom.
    destruct (code =? TC_Complexes); [auto with total|]. destruct (code =? TC_Reals); [auto with total|].
    destruct (code =? TC_Rationals); [auto with total|]. destruct (code =? TC_Integers); [auto with total|].
    destruct (code =? TC_Naturals); [auto with total|]. destruct (code =? TC_Naturals0); [auto with total|].
    destruct (code =? TC_EmptySet); [auto with total|].
    destruct (code =? TC_UniversalSet); [auto with total | discriminate].
Qed.

Theorem unicode_total : forall e, u_supported e = true -> exists b, unicode_box e = Ok b /\ lines b <> [].
Proof.
  intros e G. apply returns_iff.
  apply (fuel_suffices _ u_node ubox_fuel u_node_sup (fun r => post False r pos)); [reflexivity | | lia | exact G].
  clear e G. intros rec e G H. apply u_node_total; [exact (all_nodes_node _ _ G)|].
  intros x Hx. apply runs_rec. exact (smaller_children _ _ e G H x Hx).
Qed.
