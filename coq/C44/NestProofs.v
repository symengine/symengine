(* C44 -- facts about well-nested token streams (NestSpec.v): closure under concatenation and
   wrapping, and the stack checker decides the grammar. *)
From Coq Require Import List Bool.
Import ListNotations.
From SE Require Import C44.NestSpec.

Section NestFacts.
  Variable K : Type.
  Notation tok := (btok K).

  Lemma wn_app : forall a b : list tok, wn a -> wn b -> wn (a ++ b).
  Proof.
    intros a b Ha Hb. induction Ha; simpl.
    - exact Hb.
    - constructor. exact IHHa.
    - rewrite <- app_assoc. simpl. constructor; assumption.
  Qed.

  Lemma wn_wrap : forall (k : K) (body : list tok), wn body -> wn (BO k :: body ++ [BC k]).
  Proof. intros. apply wn_pair; [assumption | constructor]. Qed.

  Lemma wn_concat : forall ls : list (list tok), Forall wn ls -> wn (concat ls).
  Proof.
    induction 1; simpl.
    - constructor.
    - apply wn_app; assumption.
  Qed.

  Lemma wn_elem_wn : forall l : list tok, wn_elem l -> wn l.
  Proof. intros l H. destruct H. apply wn_wrap. assumption. Qed.

  Lemma wn_atoms : forall l : list tok, Forall (fun t => t = BA) l -> wn l.
  Proof.
    induction 1.
    - constructor.
    - subst. constructor. assumption.
  Qed.

  Variable keqb : K -> K -> bool.
  Hypothesis keqb_eq : forall a b, keqb a b = true <-> a = b.

  Lemma keqb_refl : forall a, keqb a a = true.
  Proof. intro a. apply keqb_eq. reflexivity. Qed.

  (* soundness of the grammar w.r.t. the stack machine *)
  Lemma chk_wn_prefix : forall l : list tok, wn l -> forall st r, chk keqb st (l ++ r) = chk keqb st r.
  Proof.
    induction 1; intros st r0; simpl.
    - reflexivity.
    - apply IHwn.
    - rewrite <- app_assoc. simpl. rewrite IHwn1. simpl. rewrite keqb_refl. apply IHwn2.
  Qed.

  Lemma wn_chk : forall l : list tok, wn l -> chk keqb [] l = true.
  Proof.
    intros l H. rewrite <- (app_nil_r l). rewrite chk_wn_prefix by assumption. reflexivity.
  Qed.

  (* completeness: what the machine accepts with stack st is a sequence of segments closing st *)
  Fixpoint closes (st : list K) (l : list tok) : Prop :=
    match st with
    | [] => wn l
    | k :: st' => exists body rest, l = body ++ BC k :: rest /\ wn body /\ closes st' rest
    end.

  Lemma closes_atom : forall st l, closes st l -> closes st (BA :: l).
  Proof.
    destruct st as [|k st]; simpl; intros l H.
    - constructor. exact H.
    - destruct H as (body & rest & E & Hb & Hr). exists (BA :: body), rest. subst.
      split; [reflexivity|]. split; [constructor; exact Hb | exact Hr].
  Qed.

  Lemma closes_open : forall st k l, closes (k :: st) l -> closes st (BO k :: l).
  Proof.
    intros st k l H. simpl in H. destruct H as (body & rest & E & Hb & Hr). subst.
    destruct st as [|k' st]; simpl in *.
    - apply wn_pair; assumption.
    - destruct Hr as (body2 & rest2 & E2 & Hb2 & Hr2). subst.
      exists (BO k :: body ++ BC k :: body2), rest2. split.
      + simpl. rewrite <- app_assoc. reflexivity.
      + split; [apply wn_pair; assumption | exact Hr2].
  Qed.

  Lemma chk_closes : forall (l : list tok) st, chk keqb st l = true -> closes st l.
  Proof.
    induction l as [|t l IH]; intros st H.
    - destruct st; simpl in H; [constructor | discriminate].
    - destruct t as [k|k|]; simpl in H.
      + apply closes_open. apply IH. exact H.
      + destruct st as [|k' st]; [discriminate|].
        destruct (keqb k k') eqn:E; [|discriminate].
        apply keqb_eq in E. subst. simpl. exists [], l. split; [reflexivity|].
        split; [constructor | apply IH; exact H].
      + apply closes_atom. apply IH. exact H.
  Qed.

  Theorem chk_iff_wn : forall l : list tok, chk keqb [] l = true <-> wn l.
  Proof.
    intro l. split.
    - intro H. apply (chk_closes l [] H).
    - apply wn_chk.
  Qed.

  Lemma wn_atom_inv : forall l : list tok, wn (BA :: l) -> wn l.
  Proof. intros l H. inversion H; subst. assumption. Qed.

  Lemma chk_snoc_atom : forall (x : list tok) st, chk keqb st (x ++ [BA]) = chk keqb st x.
  Proof.
    induction x as [|t x IH]; intros st; simpl.
    - reflexivity.
    - destruct t as [k|k|]; try apply IH.
      destruct st as [|k' st]; [reflexivity|]. destruct (keqb k k'); [apply IH | reflexivity].
  Qed.
  Lemma wn_snoc_atom_inv : forall x : list tok, wn (x ++ [BA]) -> wn x.
  Proof. intros x H. apply chk_iff_wn. apply chk_iff_wn in H. rewrite chk_snoc_atom in H. exact H. Qed.
End NestFacts.
