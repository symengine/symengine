(* C44 -- totality.  Each printer model is a step function [node rec e] closed by fuel:
   [fuelled (S f) = node (fuelled f)], started with S (size e).  A step that succeeds wherever the
   recursion succeeds on all strictly smaller trees never runs out of fuel ([fuel_suffices]); the
   smaller trees a step looks at are children ([smaller_children]), for MathML also children of
   children.
   Then the MathML printer model: on every tree all of whose nodes belong to a class with a rule (and
   whose numbers / constants / arities are the ones the rules accept) it returns a text. *)
From Coq Require Import List Bool NArith ZArith Lia.
Import ListNotations.
From SE Require Import Expr.Unfold C44.C44Spec C44.Results C44.MathMLProofs.
Local Open Scope N_scope.

Lemma forallb_map_fst : forall {B} (f : expr -> bool) (d : list (expr * B)),
  forallb f (map fst d) = forallb (fun q => f (fst q)) d.
Proof. induction d as [|q d IH]; simpl; [reflexivity|]. rewrite IH. reflexivity. Qed.

Lemma all_nodes_children : forall p e, all_nodes p e = p e && forallb (all_nodes p) (children e).
Proof.
  intros p e. destruct e; cbn [all_nodes children forallb];
    rewrite ?forallb_flat, ?forallb_map_fst, ?andb_true_r; reflexivity.
Qed.

Lemma in_flat : forall (d : list (expr * expr)) p, In p d -> In (fst p) (flat d) /\ In (snd p) (flat d).
Proof.
  intros d p H. unfold flat. split; apply in_flat_map; exists p; simpl; auto.
Qed.

Lemma all_nodes_node : forall p e, all_nodes p e = true -> p e = true.
Proof. intros p e G. rewrite all_nodes_children in G. apply andb_prop in G. apply G. Qed.
Lemma all_nodes_child : forall p e x, all_nodes p e = true -> In x (children e) -> all_nodes p x = true.
Proof.
  intros p e x G Hx. rewrite all_nodes_children in G. apply andb_prop in G.
  exact (proj1 (forallb_forall _ _) (proj2 G) x Hx).
Qed.

Lemma smaller_children : forall p (Q : expr -> Prop) e, all_nodes p e = true ->
  (forall x, (size x < size e)%nat -> all_nodes p x = true -> Q x) ->
  forall x, In x (children e) -> Q x.
Proof.
  intros p Q e G H x Hx. apply H; [apply children_size; exact Hx | exact (all_nodes_child p e x G Hx)].
Qed.

Section Fuel.
  Variables (T : Type) (node : (expr -> T) -> expr -> T) (fuelled : nat -> expr -> T).
  Variables (sup : expr -> bool) (P : T -> Prop).
  Hypothesis fuelled_S : forall f e, fuelled (S f) e = node (fuelled f) e.
  Hypothesis node_P : forall rec e, all_nodes sup e = true ->
    (forall x, (size x < size e)%nat -> all_nodes sup x = true -> P (rec x)) -> P (node rec e).

  Lemma fuel_suffices : forall f e, (size e <= f)%nat -> all_nodes sup e = true -> P (fuelled (S f) e).
  Proof using fuelled_S node_P.
    induction f as [|f IH]; intros e Hs G.
    - pose proof (size_pos e). lia.
    - rewrite fuelled_S. apply node_P; [exact G|]. intros x Hx Gx. apply IH; [lia | exact Gx].
  Qed.
End Fuel.

(* numbers MathMLPrinter prints: everything but Infty and NaN *)
Definition mm_num_sup (n : number) : bool :=
  match n with NInf _ | NNaN => false | _ => true end.

Definition known_constant (nm : list N) : bool :=
  beq nm nm_pi || beq nm name_E || beq nm nm_EulerGamma || beq nm nm_Catalan || beq nm nm_GoldenRatio.

Definition mm_node_sup (e : expr) : bool :=
  match e with
  | ENum n => mm_num_sup n
  | EConst nm => known_constant nm
  | EAdd c d => (num_is_zero c || mm_num_sup c) && forallb (fun p => mm_num_sup (snd p)) d
  | EMul c _ => num_is_one c || mm_num_sup c
  | EFN code l =>
      negb (code =? TC_Intersection)
      && (if code =? TC_ConditionSet then Nat.eqb (length l) 2 else true)
      && (if code =? TC_ImageSet then Nat.eqb (length l) 3 else true)
  | ELex code _ _ => (code =? TC_Contains) || (code =? TC_Complement)
  | ESubs _ _ => false
  | EAtom code =>
      (code =? TC_EmptySet) || (code =? TC_Complexes) || (code =? TC_Reals) || (code =? TC_Rationals)
      || (code =? TC_Integers)
  | _ => true
  end.
Definition mm_supported (e : expr) : bool := all_nodes mm_node_sup e.

Lemma mm_number_total : forall n, mm_num_sup n = true -> returns (mm_number n).
Proof.
  destruct n; simpl; intro H; try discriminate; try exact I.
  unfold num_of_q. destruct rd, imd; exact I.
Qed.

Section Rec.
  Variable rec : expr -> res (list xtok).
  Let R (x : expr) : Prop := returns (rec x).

  Lemma mm_list_total : forall l, (forall x, In x l -> R x) -> returns (mm_list rec l).
  Proof. intros l H. apply returns_map, returns_mapM, H. Qed.

  Lemma mm_pow_total : forall b x, R b -> R x -> returns (mm_pow rec b x).
  Proof. intros b x Rb Rx. apply returns_map, mm_list_total. intros y [<-|[<-|[]]]; assumption. Qed.

  Lemma mm_factor_total : forall p, R (fst p) -> R (snd p) -> returns (mm_factor rec p).
  Proof.
    intros p R1 R2. unfold mm_factor. destruct (is_num_int (snd p) 1); [exact R1 | apply mm_pow_total; assumption].
  Qed.

  (* the shared rule of Add and Mul: coefficient (unless skipped), then the entries *)
  Lemma dict_total : forall {A} op (skip : bool) c (f : A -> res (list xtok)) d,
    skip || mm_num_sup c = true -> (forall p, In p d -> returns (f p)) ->
    returns (match (if skip then Ok [] else mm_number c) with
             | Ok cs =>
                 match mapM f d with
                 | Ok fs => Ok (x_app op (cs ++ concat fs))
                 | ErrOOB i n => ErrOOB i n
                 | ErrFuel => ErrFuel
                 | ErrExn c => ErrExn c
                 end
             | e => e
             end).
  Proof.
    intros A op skip c f d Hc Hd. apply returns_bind.
    - destruct skip; [exact I | apply mm_number_total, Hc].
    - intro cs. apply returns_map, returns_mapM, Hd.
  Qed.

  Lemma mm_mul_total : forall c d,
    num_is_one c || mm_num_sup c = true -> (forall p, In p d -> returns (mm_factor rec p)) ->
    returns (mm_mul rec c d).
  Proof. intros c d. apply dict_total. Qed.

  (* an Add entry (k, v) with v <> 1 is printed as the product v * k: when k is itself a Mul or a
     Pow its factors, children of a child of the node, are printed *)
  Lemma mm_term_total : forall k v,
    mm_num_sup v = true -> R k -> (forall x, In x (children k) -> R x) -> returns (mm_term rec (k, v)).
  Proof.
    intros k v Gv Rk Rc. unfold mm_term. cbn [fst snd].
    destruct (num_is v 1); [exact Rk|].
    destruct (num_is v 0); [apply mm_number_total; exact Gv|].
    assert (Hv : num_is_one v || mm_num_sup v = true) by (rewrite Gv; apply orb_true_r).
    assert (Hk : returns (mm_mul rec v [(k, ENum (NInt 1))])).
    { apply mm_mul_total; [exact Hv|]. intros p [<-|[]]. exact Rk. }
    destruct k; try exact Hk.
    - destruct (num_is_zero v); [apply mm_number_total; exact Gv|].
      destruct d; [apply mm_number_total; exact Gv|].
      apply mm_mul_total; [exact Hv|]. intros f Hf. apply mm_factor_total; apply Rc, (in_flat _ _ Hf).
    - apply mm_mul_total; [exact Hv|]. intros f [<-|[]]. apply mm_factor_total; apply Rc; simpl; auto.
  Qed.

  Lemma mm_node_total : forall e, mm_node_sup e = true ->
    (forall k, In k (children e) -> R k /\ forall x, In x (children k) -> R x) ->
    returns (mm_node rec e).
  Proof.
    intros e Gn Hc. assert (Hk : forall k, In k (children e) -> R k) by (intros k H; exact (proj1 (Hc k H))).
    (* most rules wrap the printed children *)
    pose proof (fun {B} (g : _ -> B) => returns_map _ g (mm_list_total (children e) Hk)) as Hl.
    destruct e as [n|nm|nm idx|nm|c d|c d|b x|code a|code a c|code args|nm args|code a c|a xs|a d|pl|bv|s x lo ro|code];
      cbn [mm_node mm_node_sup children] in *; try exact I; try apply Hl.
    - apply mm_number_total. exact Gn.
    - unfold mm_constant, known_constant in *.
      destruct (beq nm nm_pi); [exact I|]. destruct (beq nm name_E); [exact I|].
      destruct (beq nm nm_EulerGamma); [exact I|]. destruct (beq nm nm_Catalan); [exact I|].
      destruct (beq nm nm_GoldenRatio); [exact I | discriminate].
    - (* EAdd *)
      apply andb_prop in Gn. destruct Gn as [Gc Gv]. apply dict_total; [exact Gc|]. intros [k v] Hp.
      destruct (Hc k (in_map fst d _ Hp)) as [Rk Rc].
      apply mm_term_total; [exact (proj1 (forallb_forall _ _) Gv _ Hp) | exact Rk | exact Rc].
    - (* EMul *)
      apply mm_mul_total; [exact Gn|]. intros p Hp. apply mm_factor_total; apply Hk, (in_flat _ _ Hp).
    - (* EF1 *)
      destruct (code =? TC_Not); [apply returns_map, Hk; left; reflexivity|].
      destruct (code =? TC_UnevaluatedExpr); [apply Hk; left; reflexivity | apply Hl].
    - (* EF2 *) destruct (rel_tag code); apply Hl.
    - (* EFN *)
      apply andb_prop in Gn. destruct Gn as [Gn G3]. apply andb_prop in Gn. destruct Gn as [G1 G2].
      destruct (code =? TC_And); [apply Hl|]. destruct (code =? TC_Or); [apply Hl|].
      destruct (code =? TC_Xor); [apply Hl|]. destruct (code =? TC_Union); [apply Hl|].
      destruct (code =? TC_FiniteSet); [apply Hl|]. destruct (code =? TC_Intersection); [discriminate|].
      destruct (code =? TC_ConditionSet).
      { destruct args as [|sym [|cond [|? ?]]]; try discriminate.
        apply returns_bind; [apply Hk; simpl; auto | intro]. apply returns_map, Hk; simpl; auto. }
      destruct (code =? TC_ImageSet); [|apply Hl].
      destruct args as [|sym [|ex [|base [|? ?]]]]; try discriminate.
      apply returns_bind; [apply Hk; simpl; auto | intro].
      apply returns_bind; [apply Hk; simpl; auto | intro]. apply returns_map, Hk; simpl; auto.
    - (* ELex *)
      destruct (code =? TC_Contains); [apply Hl|]. destruct (code =? TC_Complement); [apply Hl | discriminate].
    - (* EDeriv *)
      apply returns_bind; [apply mm_list_total; intros y Hy; apply Hk; right; exact Hy | intro].
      apply returns_map, Hk. left. reflexivity.
    - discriminate.
    - (* EPw *)
      apply returns_map, returns_mapM. intros p Hp.
      apply returns_map, mm_list_total. intros y [<-|[<-|[]]]; apply Hk, (in_flat _ _ Hp).
    - (* EAtom *)
      unfold mm_atom.
      destruct (code =? TC_EmptySet); [exact I|]. destruct (code =? TC_Complexes); [exact I|].
      destruct (code =? TC_Reals); [exact I|]. destruct (code =? TC_Rationals); [exact I|].
      destruct (code =? TC_Integers); [exact I | discriminate].
  Qed.
End Rec.

Theorem mathml_total : forall e, mm_supported e = true -> exists l, mathml_toks e = Ok l.
Proof.
  intros e G. apply returns_ex.
  apply (fuel_suffices _ mm_node mathml_fuel mm_node_sup (fun r => returns r)); [reflexivity | | lia | exact G].
  clear e G. intros rec e G H. apply mm_node_total; [exact (all_nodes_node _ _ G)|]. intros k Hk.
  pose proof (all_nodes_child _ _ _ G Hk) as Gk. pose proof (children_size _ _ Hk) as Sk.
  split; [apply H; assumption|]. intros x Hx. pose proof (children_size _ _ Hx).
  apply H; [lia | exact (all_nodes_child _ _ _ Gk Hx)].
Qed.

(* and then the text is well formed (the function classes of a supported tree need not be in the
   name table for totality, but they do for well-formedness) *)
Corollary mathml_total_wellformed : forall e,
  mm_supported e = true -> mm_guard e = true -> exists l, mathml_toks e = Ok l /\ xelement l.
Proof.
  intros e G1 G2. destruct (mathml_total e G1) as [l Hl]. exists l. split; [exact Hl|].
  eapply mathml_wellformed; eauto.
Qed.
