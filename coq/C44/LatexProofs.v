(* C44 -- LaTeX: under the guard, every \left / \right of latex(e) carries a delimiter and brace
   groups and \left..\right pairs nest. *)
From Coq Require Import List Bool NArith ZArith Lia.
Import ListNotations.
From SE Require Import C44.C44Spec C44.Results C44.NestProofs C44.TextProofs.
Local Open Scope N_scope.

Lemma lkind_eqb_eq : forall a b, lkind_eqb a b = true <-> a = b.
Proof. destruct a, b; simpl; split; intro H; try reflexivity; discriminate. Qed.

Definition good (l : list ltok) : Prop := forallb ltok_ok l = true /\ wn (List.map lclass l).

Lemma good_iff_b : forall l, latex_wf_b l = true <-> good l.
Proof.
  intro l. unfold latex_wf_b, good. rewrite andb_true_iff.
  rewrite (chk_iff_wn lkind lkind_eqb lkind_eqb_eq). reflexivity.
Qed.
Lemma good_latex_wf : forall l, good l <-> latex_wf l.
Proof.
  intro l. unfold good, latex_wf. rewrite forallb_forall, Forall_forall. reflexivity.
Qed.

Lemma good_nil : good [].
Proof. split; [reflexivity | constructor]. Qed.
Lemma good_app : forall a b, good a -> good b -> good (a ++ b).
Proof.
  intros a b [Ha1 Ha2] [Hb1 Hb2]. split.
  - rewrite forallb_app, Ha1, Hb1. reflexivity.
  - rewrite map_app. apply wn_app; assumption.
Qed.
Lemma good_concat : forall ls, Forall good ls -> good (concat ls).
Proof. exact (concat_closed good good_nil good_app). Qed.
Lemma good_join : forall sep ls, good sep -> Forall good ls -> good (join sep ls).
Proof.
  intros sep ls Hs H. induction H as [|x ls Hx Hls IH]; simpl; [apply good_nil|].
  destruct ls; [exact Hx|]. apply good_app; [exact Hx|]. apply good_app; [exact Hs | exact IH].
Qed.

(* The text of a rule is literal pieces ("\frac{", "}{", "}") with printed sub-terms in between; the
   pieces alone need not be balanced.  [lstep st l] is the checker's stack after l; it is computed
   on the pieces, and a good stream in between leaves the stack as it is. *)
Fixpoint lstep (st : list lkind) (l : list ltok) : option (list lkind) :=
  match l with
  | [] => Some st
  | t :: r =>
      if ltok_ok t then
        match lclass t with
        | BA => lstep st r
        | BO k => lstep (k :: st) r
        | BC k => match st with
                  | k' :: st' => if lkind_eqb k k' then lstep st' r else None
                  | [] => None
                  end
        end
      else None
  end.

Lemma lstep_spec : forall l st,
  match lstep st l with Some [] => true | _ => false end
  = forallb ltok_ok l && chk lkind_eqb st (List.map lclass l).
Proof.
  induction l as [|t l IH]; intro st; cbn [lstep forallb List.map chk]; [destruct st; reflexivity|].
  destruct (ltok_ok t); [|reflexivity]. cbn [andb].
  destruct (lclass t) as [k|k|]; try apply IH.
  destruct st as [|k' st]; [rewrite andb_false_r; reflexivity|].
  destruct (lkind_eqb k k'); [apply IH | rewrite andb_false_r; reflexivity].
Qed.

Lemma lstep_app : forall a b st,
  lstep st (a ++ b) = match lstep st a with Some st' => lstep st' b | None => None end.
Proof.
  induction a as [|t a IH]; intros b st; cbn [lstep app]; [reflexivity|].
  destruct (ltok_ok t); [|reflexivity].
  destruct (lclass t) as [k|k|]; try apply IH.
  destruct st as [|k' st]; [reflexivity|]. destruct (lkind_eqb k k'); [apply IH | reflexivity].
Qed.

Definition lrun (st : list lkind) (l : list ltok) : bool :=
  match lstep st l with Some [] => true | _ => false end.

Lemma lrun_good : forall h st r, good h -> lrun st (h ++ r) = lrun st r.
Proof.
  intros h st r [H1 H2]. unfold lrun. rewrite !lstep_spec, forallb_app, map_app, H1.
  rewrite (chk_wn_prefix lkind lkind_eqb lkind_eqb_eq _ H2). reflexivity.
Qed.
Lemma lrun_piece : forall p st st' r, lstep st p = Some st' -> lrun st (p ++ r) = lrun st' r.
Proof. intros p st st' r H. unfold lrun. rewrite lstep_app, H. reflexivity. Qed.
Lemma good_lrun : forall l, lrun [] (l ++ []) = true -> good l.
Proof. intros l H. rewrite app_nil_r in H. unfold lrun in H. rewrite lstep_spec in H. apply good_iff_b, H. Qed.

Lemma lit_good : forall l, latex_wf_b l = true -> good l.
Proof. intros. apply good_iff_b. assumption. Qed.

Lemma lclass_LC : forall c,
  lclass (LC c) = if c =? 123 then BO KBrace else if c =? 125 then BC KBrace else BA.
Proof. destruct c as [|q]; [reflexivity|]. do 7 (destruct q as [q|q|]; try reflexivity). Qed.

Definition tex_plain (c : N) : bool := negb ((c =? 92) || (c =? 123) || (c =? 125)).

Lemma good_raw : forall s, tex_name_ok s = true -> good (raw s).
Proof.
  intros s H. unfold raw. split.
  - apply forallb_map_const. reflexivity.
  - rewrite map_map. apply wn_atoms, Forall_forall. intros t Ht.
    apply in_map_iff in Ht. destruct Ht as (c & <- & Hc).
    pose proof (proj1 (forallb_forall _ _) H c Hc) as P. cbv beta in P. rewrite lclass_LC.
    destruct (c =? 92), (c =? 123), (c =? 125); try discriminate P; reflexivity.
Qed.
Lemma good_raw_app : forall a b, good (raw a) -> good (raw b) -> good (raw (a ++ b)).
Proof. intros. unfold raw in *. rewrite map_app. apply good_app; assumption. Qed.

Lemma tex_plain_digit : forall c, 48 <= c -> c <= 57 -> tex_plain c = true.
Proof.
  intros c H1 H2. unfold tex_plain. rewrite (digit_neq c 92), (digit_neq c 123), (digit_neq c 125) by lia. reflexivity.
Qed.
Lemma plain_double : forall b, tex_name_ok (print_double b) = true.
Proof. intro b. apply (chars_print_double tex_plain tex_plain_digit); reflexivity. Qed.

Lemma good_dec_Z : forall z, good (raw (dec_Z z)).
Proof. intro. apply good_raw, (chars_dec_Z tex_plain tex_plain_digit). reflexivity. Qed.
Lemma good_dec_N : forall n, good (raw (dec_N n)).
Proof. intro. apply good_raw, (chars_dec_N tex_plain tex_plain_digit). Qed.
Lemma good_double : forall b, good (raw (print_double b)).
Proof. intro. apply good_raw, plain_double. Qed.
Lemma good_tl_raw : forall s, tex_name_ok s = true -> good (tl (raw s)).
Proof. intros s H. destruct s as [|c s]; [apply good_nil|]. apply good_raw, (forallb_tl _ (c :: s)), H. Qed.

#[local] Hint Resolve good_dec_Z good_dec_N good_double good_nil : good.

(* a rule's text: skip the good streams, compute the stack over the pieces in between *)
Ltac template :=
  apply good_lrun; rewrite <- ?app_assoc;
  repeat first [rewrite lrun_good by auto with good | erewrite lrun_piece by reflexivity];
  reflexivity.
#[local] Hint Extern 3 (good (_ ++ _)) => template : good.

Lemma good_l_q : forall p q, good (l_q p q).
Proof. intros p q. unfold l_q. destruct q; auto with good. Qed.
#[local] Hint Resolve good_l_q : good.

Lemma good_l_complex : forall rn rd imn imd, good (l_complex rn rd imn imd).
Proof.
  intros. unfold l_complex.
  destruct (negb (rn =? 0)%Z); [|destruct (_ && _)]; destruct (0 <? imn)%Z; try destruct (_ && _);
    first [template | apply lit_good; reflexivity].
Qed.

Lemma good_p_infty : forall fl d, good (p_infty fl d).
Proof. intros fl d. unfold p_infty. destruct fl, (d <? 0)%Z, (0 <? d)%Z; apply lit_good; reflexivity. Qed.

Lemma good_pnum : forall n, good (pnum FLatex n).
Proof.
  destruct n; cbn [pnum]; auto using good_l_complex, good_p_infty with good.
  - destruct (dbl_negative im); [|template]. pose proof (good_tl_raw _ (plain_double im)). template.
  - apply lit_good. reflexivity.
Qed.

(* plain StrPrinter text of a number (Interval end points) *)
Lemma good_pnum_str : forall n, good (pnum FStr n).
Proof.
  assert (Hq : forall p q, good (p_q p q)) by (intros; unfold p_q; template).
  assert (Hqi : forall p q, good (p_qi p q)) by (intros p q; unfold p_qi; destruct q; auto with good).
  destruct n; cbn [pnum print_mul imag_symbol]; auto using good_p_infty with good.
  - unfold p_complex. cbn [print_mul imag_symbol].
    destruct (negb (rn =? 0)%Z); [|destruct (_ && _)]; destruct (0 <? imn)%Z; try destruct (_ && _);
      first [template | apply lit_good; reflexivity].
  - destruct (dbl_negative im); template.
  - apply lit_good. reflexivity.
Qed.
#[local] Hint Resolve good_pnum : good.

Lemma good_print_symbol : forall f name, tex_name_ok name = true -> good (raw (print_symbol f name)).
Proof.
  induction f as [|f IH]; intros name H; cbn [print_symbol]; [apply good_raw; exact H|].
  destruct (existsb _ name); [apply good_raw; exact H|].
  assert (Hmain : good (raw (if existsb (beq name) greeks then 92 :: name
            else match find_byte 95 name with
                 | None => name
                 | Some idx =>
                     if Nat.eqb idx (List.length name - 1) then name
                     else if Nat.ltb idx (List.length name - 2) then
                       print_symbol f (firstn idx name) ++ [95; 123]
                         ++ print_symbol f (skipn (S idx) name) ++ [125]
                     else print_symbol f (firstn idx name) ++ [95] ++ skipn (S idx) name
                 end))).
  { pose proof (good_raw _ H) as Gn.
    destruct (existsb (beq name) greeks); [apply (good_app [LC 92]); [apply lit_good; reflexivity | exact Gn]|].
    destruct (find_byte 95 name) as [idx|]; [|exact Gn]. destruct (Nat.eqb idx _); [exact Gn|].
    pose proof (IH _ (forallb_firstn _ idx _ H)) as G1. pose proof (forallb_skipn _ (S idx) _ H) as H2.
    pose proof (IH _ H2) as G2. pose proof (good_raw _ H2) as G3.
    destruct (Nat.ltb idx _); unfold raw in *; rewrite !map_app; cbn [List.map]; template. }
  destruct name as [|c rest]; [exact Hmain|]. rewrite match_95.
  destruct (c =? 95); [apply IH, (forallb_tl _ (c :: rest)), H | exact Hmain].
Qed.

Lemma good_latex_symbol : forall nm, tex_name_ok nm = true -> good (latex_symbol nm).
Proof. intros. unfold latex_symbol. apply good_print_symbol. assumption. Qed.

Lemma good_fname : forall code, good (fname FLatex code).
Proof.
  intro code. apply good_iff_b. unfold fname, latex_name.
  destruct (tbl_find code latex_over) as [v|] eqn:E1.
  - apply (tbl_find_prop (fun v => latex_wf_b (lx v)) code latex_over v); [vm_compute; reflexivity | exact E1].
  - destruct (tbl_find code str_names) as [v|] eqn:E2; [|reflexivity].
    apply (tbl_find_prop (fun v => latex_wf_b (lx (s_operatorname ++ v ++ [125]))) code str_names v);
      [vm_compute; reflexivity | exact E2].
Qed.
#[local] Hint Resolve good_fname : good.

Lemma rbind_good : forall {B} (r : res (list ltok)) (f : list ltok -> res B) (Q : B -> Prop),
  post True r good -> (forall s, good s -> post True (f s) Q) -> post True (rbind r f) Q.
Proof. intros B r f Q. exact (post_bind True good r f Q). Qed.

(* a stream that is empty or ends with an atom (the one-byte print_mul(), or the sign) *)
Definition tail_atom (o : list ltok) : Prop :=
  o = [] \/ exists X t, o = X ++ [t] /\ lclass t = BA.

Lemma good_removelast : forall o, good o -> tail_atom o -> good (removelast o).
Proof.
  intros o G [->|(X & t & -> & Ht)]; [apply good_nil|].
  rewrite removelast_last. destruct G as [G1 G2]. split.
  - rewrite forallb_app in G1. apply andb_prop in G1. apply G1.
  - rewrite map_app in G2. simpl in G2. rewrite Ht in G2.
    apply (wn_snoc_atom_inv lkind lkind_eqb lkind_eqb_eq). exact G2.
Qed.

Lemma tail_atom_snoc : forall o t, lclass t = BA -> tail_atom (o ++ [t]).
Proof. intros. right. exists o, t. split; [reflexivity | assumption]. Qed.

Lemma good_cons_atom_inv : forall t l, lclass t = BA -> good (t :: l) -> good l.
Proof.
  intros t l Ht [G1 G2]. split.
  - simpl in G1. apply andb_prop in G1. apply G1.
  - simpl in G2. rewrite Ht in G2. apply (wn_atom_inv lkind). exact G2.
Qed.

(* " + t", or " - t'" when t starts with a sign *)
Lemma good_signed : forall t, good t ->
  good (match t with LC 45 :: t' => t_minus ++ t' | _ => t_plus ++ t end).
Proof.
  intros t Gt. assert (Hplus : good (t_plus ++ t)) by template.
  destruct t as [|[c|c|dl|dl] t']; try exact Hplus. rewrite match_45.
  destruct (N.eqb_spec c 45) as [->|_]; [|exact Hplus].
  apply (good_cons_atom_inv (LC 45)) in Gt; [template | reflexivity].
Qed.

Section Rec.
  Variable rec : flavour -> expr -> res (list ltok).
  Hypothesis IH : forall e, latex_guard e = true -> post True (rec FLatex e) good.

  Lemma app_good : forall e, latex_guard e = true -> post True (StrModel.app rec FLatex e) good.
  Proof. intros e G. destruct e; try (apply IH; exact G). apply good_pnum. Qed.

  Lemma paren_good : forall s, good s -> good (parenthesize FLatex s).
  Proof. intros s Hs. unfold parenthesize. template. Qed.

  (* [auto with good] goes through the binds of a rule, each printed sub-term being good by IH, and
     closes the rule's text with [template] *)
  #[local] Hint Resolve rbind_good app_good paren_good : good.
  #[local] Hint Extern 1 (post _ (Ok _) _) => cbn [post] : good.

  Lemma paren_lt_good : forall e p, latex_guard e = true -> post True (paren_lt rec FLatex e p) good.
  Proof. intros e p G. unfold paren_lt. apply rbind_good; [auto with good | intros s Hs]. destruct (precedence e <? p); auto with good. Qed.
  Lemma paren_le_good : forall e p, latex_guard e = true -> post True (paren_le rec FLatex e p) good.
  Proof. intros e p G. unfold paren_le. apply rbind_good; [auto with good | intros s Hs]. destruct (precedence e <=? p); auto with good. Qed.

  Lemma mapM_app_good : forall l,
    forallb latex_guard l = true -> post True (mapM (StrModel.app rec FLatex) l) (Forall good).
  Proof. intros l G. apply post_mapM. intros x Hx. apply app_good, (proj1 (forallb_forall _ _) G x Hx). Qed.

  Lemma app_vec_good : forall l, forallb latex_guard l = true -> post True (app_vec rec FLatex l) good.
  Proof.
    intros l G. eapply post_bind; [apply mapM_app_good, G | intros ls Hls].
    apply good_join; [apply lit_good; reflexivity | exact Hls].
  Qed.

  Lemma latex_guard_num : forall n, latex_guard (ENum n) = true.
  Proof. reflexivity. Qed.

  #[local] Hint Resolve paren_lt_good paren_le_good app_vec_good latex_guard_num : good.

  Lemma print_pow_good : forall a c,
    latex_guard a = true -> latex_guard c = true -> post True (print_pow rec FLatex a c) good.
  Proof.
    intros a c Ga Gc. unfold print_pow.
    destruct (is_E a); [auto with good|]. destruct (is_half c); [auto with good|].
    assert (Hdef : post True (rbind (paren_le rec FLatex a PREC_Pow) (fun sa =>
                     rbind (StrModel.app rec FLatex c) (fun sc =>
                       Ok (sa ++ (if Nat.ltb 1 (lbytes sc) then t_caretbr ++ sc ++ t_rbrace
                                  else t_caret ++ sc))))) good).
    { apply rbind_good; [auto with good | intros sa Ha]. apply rbind_good; [auto with good | intros sc Hc].
      cbn [post]. destruct (Nat.ltb 1 (lbytes sc)); template. }
    destruct c as [[z|[|[pp|pp|]|pp] q|rn rd imn imd|bb|re im|dd|]| | | | | | | | | | | | | | | | |];
      auto with good.
  Qed.

  Lemma add_term_good : forall k v, latex_guard k = true -> post True (add_term rec FLatex k v) good.
  Proof.
    intros k v G. unfold add_term, print_mul.
    destruct (num_is v 1); [|destruct (num_is v (-1))]; auto 6 with good.
  Qed.

  Lemma add_terms_good : forall d first,
    forallb (fun p => latex_guard (fst p)) d = true -> post True (add_terms rec FLatex first d) good.
  Proof.
    induction d as [|[k v] d IHd]; intros first G; cbn [add_terms]; [apply good_nil|].
    simpl in G. apply andb_prop in G. destruct G as [Gk Gd].
    apply rbind_good; [apply add_term_good, Gk | intros t Gt]. apply rbind_good; [apply IHd, Gd | intros rest Gr].
    cbn [post]. apply good_app; [|exact Gr]. destruct first; [exact Gt | apply good_signed, Gt].
  Qed.

  Lemma print_add_good : forall c d,
    forallb (fun p => latex_guard (fst p)) d = true -> post True (print_add rec FLatex c d) good.
  Proof.
    intros c d G. unfold print_add.
    assert (Gs : forallb (fun p => latex_guard (fst p)) (pmap_of d) = true).
    { apply forallb_forall. intros p Hp. exact (proj1 (forallb_forall _ _) G p (pmap_of_incl d p Hp)). }
    destruct (negb (num_is c 0)); [|apply add_terms_good, Gs].
    apply rbind_good; [apply add_terms_good, Gs | auto with good].
  Qed.

  #[local] Hint Resolve print_pow_good : good.

  (* the dictionary loop of Mul: both streams stay good and end with the product sign *)
  Definition mul_state (st : list ltok * bool * list ltok * nat) : Prop :=
    let '(o, _, o2, _) := st in good o /\ tail_atom o /\ good o2 /\ tail_atom o2.

  Lemma snoc_mul_good : forall o t, good o -> good t ->
    good (o ++ t ++ print_mul FLatex) /\ tail_atom (o ++ t ++ print_mul FLatex).
  Proof.
    intros o t Go Gt. split; [unfold print_mul; template|].
    rewrite app_assoc. apply tail_atom_snoc. reflexivity.
  Qed.

  Lemma mul_factors_good : forall d o num o2 den,
    forallb (fun q => latex_guard (fst q) && latex_guard (snd q)) d = true ->
    mul_state (o, num, o2, den) -> post True (mul_factors rec FLatex d o num o2 den) mul_state.
  Proof.
    induction d as [|[b x] d IHd]; intros o num o2 den G S; cbn [mul_factors]; [exact S|].
    destruct S as (Go & To & Go2 & To2).
    simpl in G. apply andb_prop in G. destruct G as [Gbx Gd]. apply andb_prop in Gbx. destruct Gbx as [Gb Gx].
    destruct (if is_E b then None else neg_rational_exp x) as [nx|]; apply rbind_good.
    - destruct (num_is nx 1); auto with good.
    - intros t Gt. apply IHd; [exact Gd|]. destruct (snoc_mul_good o2 t Go2 Gt). cbn. auto.
    - destruct (is_num_int x 1); auto with good.
    - intros t Gt. apply IHd; [exact Gd|]. destruct (snoc_mul_good o t Go Gt). cbn. auto.
  Qed.

  Lemma print_mul_node_good : forall c d,
    forallb (fun q => latex_guard (fst q) && latex_guard (snd q)) d = true ->
    post True (print_mul_node rec FLatex c d) good.
  Proof.
    intros c d G. unfold print_mul_node.
    assert (Hnil : good [] /\ tail_atom []) by (split; [apply good_nil | left; reflexivity]).
    assert (Hpart : forall (m : number) (b : bool) {T} (x y : T),
              post True (if b then rbind (paren_lt rec FLatex (ENum m) PREC_Mul) (fun s => Ok (s ++ print_mul FLatex, x))
                         else Ok ([], y)) (fun r => good (fst r) /\ tail_atom (fst r))).
    { intros m b T x y. destruct b; [|exact Hnil]. apply rbind_good; [auto with good | intros s Gs].
      apply (snoc_mul_good [] s good_nil Gs). }
    apply (post_bind True mul_state).
    - destruct (num_is c (-1)).
      { cbn. repeat split; try apply Hnil. apply lit_good; reflexivity. apply (tail_atom_snoc [] (LC 45)); reflexivity. }
      destruct (negb (num_is c 1)); [|cbn; tauto].
      cbn [split_mul_coef negb]. destruct (coef_numer_denom c) as [numer denom].
      eapply post_bind; [apply Hpart | intros [o0 n0] [? ?]].
      eapply post_bind; [apply Hpart | intros [o20 d0] [? ?]]. cbn in *. tauto.
    - intros [[[o0 num0] o20] den0] S0.
      eapply post_bind; [apply (mul_factors_good d _ _ _ _ G S0) | intros [[[o num] o2] den] (Go & To & Go2 & To2)].
      assert (Gs : good (removelast (if num then o else o ++ t_one ++ print_mul FLatex))).
      { apply good_removelast; destruct num; try assumption; apply (snoc_mul_good o t_one Go); apply lit_good; reflexivity. }
      pose proof (good_removelast _ Go2 To2) as Gs2.
      destruct den as [|[|den]]; cbn [post]; [exact Gs | |]; unfold print_div; template.
  Qed.

  Lemma print_function_good : forall code args,
    forallb latex_guard args = true -> post True (print_function rec FLatex code args) good.
  Proof. intros code args G. unfold print_function, parenthesize. auto with good. Qed.

  Lemma print_logic_good : forall code args,
    forallb latex_guard args = true -> post True (print_logic rec FLatex code args) good.
  Proof.
    intros code args G. unfold print_logic.
    eapply post_bind; [|intros ls Hls; apply good_join; [|exact Hls]].
    - apply post_mapM. intros x Hx. apply rbind_good; [apply app_good, (proj1 (forallb_forall _ _) G x Hx) | intros s Gs].
      destruct (is_logic_other code x); auto with good.
    - unfold latex_logic_op. destruct (code =? TC_And); [|destruct (code =? TC_Or)]; apply lit_good; reflexivity.
  Qed.

  Lemma deriv_groups_good : forall rest prev count,
    latex_guard prev = true -> forallb latex_guard rest = true ->
    post True (deriv_groups rec prev count rest) good.
  Proof.
    induction rest as [|x rest IHr]; intros prev count Gp Gr; cbn [deriv_groups].
    - apply rbind_good; [auto with good | intros s Gs]. cbn [post]. destruct (count =? 1); template.
    - simpl in Gr. apply andb_prop in Gr. destruct Gr as [Gx Gr].
      destruct (negb (expr_eqb prev x)); [|apply IHr; assumption].
      apply rbind_good; [auto with good | intros s Gs]. apply rbind_good; [apply IHr; assumption | intros tl_ Gt].
      cbn [post]. destruct (count =? 1); template.
  Qed.

  Lemma p_constant_good : forall nm, post True (p_constant FLatex nm) good.
  Proof.
    intro nm. unfold p_constant.
    repeat (apply post_if; [apply lit_good; reflexivity|]). exact I.
  Qed.
  Lemma p_atom_good : forall code, post True (p_atom FLatex code) good.
  Proof.
    intro code. unfold p_atom.
    repeat (apply post_if; [apply lit_good; reflexivity|]). exact I.
  Qed.

  #[local] Hint Resolve print_function_good : good.

  Lemma print_node_good : forall e, latex_guard e = true -> post True (print_node rec FLatex e) good.
  Proof using IH.
    intros e G. unfold latex_guard in G.
    destruct e as [n|nm|nm idx|nm|c d|c d|b x|code a|code a c|code args|nm args|code a c|a xs|a d|pl|bv|s x lo ro|code];
      cbn [all_nodes] in G; apply andb_prop in G; destruct G as [Gn Gk]; cbn [print_node].
    - apply good_pnum.
    - apply good_latex_symbol. apply andb_prop in Gn. apply Gn.
    - apply good_latex_symbol. apply andb_prop in Gn. apply Gn.
    - apply p_constant_good.
    - apply print_add_good, Gk.
    - apply print_mul_node_good, Gk.
    - apply andb_prop in Gk. apply print_pow_good; apply Gk.
    - (* EF1 *)
      assert (Ga : forallb latex_guard [a] = true) by (simpl; unfold latex_guard; rewrite Gk; reflexivity).
      destruct (code =? TC_Not); [auto with good|]. destruct (code =? TC_Abs); [auto with good|].
      destruct (code =? TC_Floor); [auto with good|]. destruct (code =? TC_Ceiling); auto with good.
    - (* EF2 *)
      apply andb_prop in Gk. destruct Gk as [G1 G2].
      assert (Ga : forallb latex_guard [a; c] = true) by (simpl; unfold latex_guard; rewrite G1, G2; reflexivity).
      unfold rel_op. cbn match.
      destruct (code =? TC_Equality); [auto 6 with good|]. destruct (code =? TC_Unequality); [auto 6 with good|].
      destruct (code =? TC_LessThan); [auto 6 with good|]. destruct (code =? TC_StrictLessThan); auto 6 with good.
    - (* EFN *)
      destruct ((code =? TC_And) || (code =? TC_Or) || (code =? TC_Xor)); [apply print_logic_good, Gk|].
      unfold latex_node_ok in Gn. simpl in Gn.
      destruct (code =? TC_FiniteSet); [discriminate|].
      assert (Hj : forall sep, latex_wf_b sep = true ->
                post True (rbind (mapM (StrModel.app rec FLatex) args) (fun ls => Ok (join sep ls))) good).
      { intros sep Hs. eapply post_bind; [apply mapM_app_good, Gk | intros ls Hls].
        apply good_join; [apply lit_good, Hs | exact Hls]. }
      destruct (code =? TC_Union); [apply Hj; reflexivity|].
      destruct (code =? TC_Intersection); [apply Hj; reflexivity|].
      destruct (code =? TC_ConditionSet).
      { destruct args as [|sym [|cond [|? ?]]]; try exact I.
        simpl in Gk. apply andb_prop in Gk. destruct Gk as [Gs Gc]. apply andb_prop in Gc. destruct Gc as [Gc _].
        auto 6 with good. }
      destruct (code =? TC_ImageSet); [|auto with good].
      destruct args as [|sym [|ex [|base [|? ?]]]]; try exact I.
      simpl in Gk. apply andb_prop in Gk. destruct Gk as [Gs Gk]. apply andb_prop in Gk. destruct Gk as [Gx Gk].
      apply andb_prop in Gk. destruct Gk as [Gb _]. auto 8 with good.
    - (* EFunSym *)
      assert (good (raw nm)) by (apply good_raw; apply andb_prop in Gn; apply Gn).
      unfold parenthesize. auto with good.
    - (* ELex *)
      apply andb_prop in Gk. destruct Gk as [G1 G2].
      destruct (code =? TC_Contains); [auto 6 with good|]. destruct (code =? TC_Complement); [auto 6 with good | exact I].
    - (* EDeriv *)
      apply andb_prop in Gk. destruct Gk as [Ga Gx].
      (* the head "\frac{d}{d x" is closed by the "} " that follows it *)
      apply (post_bind True (fun head => forall sa, good sa -> good (head ++ t_dend ++ sa))).
      + destruct xs as [|x0 [|x1 xr]]; [exact I | |]; simpl in Gx; apply andb_prop in Gx; destruct Gx as [Gx0 Gxr].
        * apply rbind_good; [auto with good | intros sx Hx]. cbn [post]. intros sa Hsa.
          destruct (Nat.eqb _ 1); template.
        * apply rbind_good; [apply deriv_groups_good; assumption | intros g Hg]. cbn [post]. intros sa Hsa. template.
      + intros head Hh. apply rbind_good; [auto with good | intros sa Hsa]. apply Hh, Hsa.
    - (* ESubs *)
      apply andb_prop in Gk. destruct Gk as [Ga Gd].
      apply rbind_good; [auto with good | intros sa Hsa].
      apply (post_bind True (Forall good)).
      2: { intros ls Hls. cbn [post]. pose proof (good_join t_lsubs_sep ls (lit_good t_lsubs_sep eq_refl) Hls). template. }
      apply post_mapM. intros p Hp. pose proof (proj1 (forallb_forall _ _) Gd p Hp) as Gp.
      apply andb_prop in Gp. destruct Gp. auto 6 with good.
    - (* EPw *)
      apply rbind_good; [|auto with good]. clear Gn.
      induction pl as [|[x0 c0] pl IHp]; [apply good_nil|].
      simpl in Gk. apply andb_prop in Gk. destruct Gk as [Gxc Gk]. apply andb_prop in Gxc. destruct Gxc as [Gx0 Gc0].
      specialize (IHp Gk).
      destruct pl as [|p1 pl']; [apply rbind_good; [auto with good | intros sx Hx]; destruct (is_true c0)|];
        auto 8 with good.
    - destruct bv; apply lit_good; reflexivity.
    - (* EInterval *)
      unfold latex_node_ok in Gn. simpl in Gn.
      destruct s as [ns| | | | | | | | | | | | | | | | |]; try discriminate.
      destruct x as [nx| | | | | | | | | | | | | | | | |]; try discriminate.
      cbn [StrModel.app rbind post]. pose proof (good_pnum_str ns). pose proof (good_pnum_str nx). destruct lo, ro; template.
    - apply p_atom_good.
  Qed.
End Rec.

Lemma sp_fuel_good : forall f e, latex_guard e = true -> post True (sp_fuel f FLatex e) good.
Proof. induction f as [|f IHfuel]; intros e G; [exact I|]. apply print_node_good; assumption. Qed.

Theorem latex_balanced : forall e l, latex_guard e = true -> latex_toks e = Ok l -> latex_wf l.
Proof. intros e l G H. apply good_latex_wf. exact (proj1 (yields_iff _ _) (sp_fuel_good _ e G) l H). Qed.

(* the checker decides the specification *)
Theorem latex_checker_iff : forall l, latex_wf_b l = true <-> latex_wf l.
Proof. intro l. rewrite good_iff_b. apply good_latex_wf. Qed.

(* the FiniteSet rule ("\left{" ... "\right}") violates the property: the guard is necessary *)
Definition finiteset_witness : expr := EFN TC_FiniteSet [ENum (NInt 1); ENum (NInt 2)].
Theorem latex_balanced_refuted :
  exists l, latex_toks finiteset_witness = Ok l /\ ~ latex_wf l
            /\ lrender l = [92; 108; 101; 102; 116; 123; 49; 32; 44; 32; 50; 92; 114; 105; 103; 104; 116; 125].
Proof.
  eexists. split; [vm_compute; reflexivity|]. split; [|vm_compute; reflexivity].
  intro H. apply latex_checker_iff in H. vm_compute in H. discriminate.
Qed.
