(* C07: the hypotheses are satisfiable with non-trivial operands and valuations, and the equations are not
   trivially 0 = 0:  (3/2*x^2*y^-1) * (I*x^-3*y)  at x = 2/3, y = 1/2 - I. *)
From SE Require Import Expr.DenotePow Num.NumSpec.
From Coq Require Import QArith.
Local Open Scope Z_scope.
Definition vx := ESym [120%N]. Definition vy := ESym [121%N].
Definition rho (nm : list N) : qi := match nm with [120%N] => (Qmake 2 3, 0%Q) | _ => (Qmake 1 2, Qmake (-1) 1) end.
Definition rhoc (nm : list N) : qi := (Qmake 3 1, 0%Q).
Definition p1 := EMul (NRat 3 2) [(vx, e_int 2); (vy, e_int (-1))].
Definition p2 := EMul (NCplx 0 1 1 1) [(vx, e_int (-3)); (vy, e_int 1)].
Definition qi_eqb (u v : qi) : bool := Qeq_bool (fst u) (fst v) && Qeq_bool (snd u) (snd v).
Example C07_hypotheses_hold :
  mul_operand_ok p1 = true /\ mul_operand_ok p2 = true /\ mul_dfn rho rhoc p1 = true /\ mul_dfn rho rhoc p2 = true /\
  add_operand_ok p1 = true /\ add_operand_ok p2 = true.
Proof. vm_compute. repeat split; reflexivity. Qed.
Example C07_values_nontrivial :
  match e_mul 5 p1 p2, e_add p1 p2 with
  | Ok m, Ok s =>
      qi_eqb (denote rho rhoc m) (qi_mul (denote rho rhoc p1) (denote rho rhoc p2))
      && qi_eqb (denote rho rhoc s) (qi_add (denote rho rhoc p1) (denote rho rhoc p2))
      && negb (qi_eqb (denote rho rhoc m) qi_zero) && negb (qi_eqb (denote rho rhoc s) qi_zero)
  | _, _ => false
  end = true.
Proof. vm_compute. reflexivity. Qed.
Lemma qi_eqb_iff : forall u v, qi_eqb u v = true <-> qi_eq u v.
Proof.
  intros u v. unfold qi_eqb, qi_eq. rewrite andb_true_iff, !Qeq_bool_iff. reflexivity.
Qed.
(* pow and div: ((3/2)*x^2*y^-1)^-3 and p1 / p2 at the same point *)
Example C07_pow_div_hypotheses_hold :
  pow_operand_ok p1 (-3) = true /\ pow_dfn_ok rho rhoc p1 (-3) = true /\
  pow_operand_ok p2 (-1) = true /\ pow_dfn_ok rho rhoc p2 (-1) = true.
Proof. vm_compute. repeat split; reflexivity. Qed.
Example C07_pow_div_values_nontrivial :
  match e_pow 6 p1 (ENum (NInt (-3))), e_div 6 p1 p2 with
  | Ok pw, Ok dv =>
      qi_eqb (denote rho rhoc pw) (qi_powz (denote rho rhoc p1) (-3))
      && qi_eqb (denote rho rhoc dv) (qi_mul (denote rho rhoc p1) (qi_inv (denote rho rhoc p2)))
      && negb (qi_eqb (denote rho rhoc pw) qi_zero) && negb (qi_eqb (denote rho rhoc dv) qi_zero)
  | _, _ => false
  end = true.
Proof.
  destruct C07_hypotheses_hold as (M1 & _ & D1 & D2 & _).
  destruct C07_pow_div_hypotheses_hold as (P1 & PD1 & P2 & PD2).
  assert (EP : e_pow 6 p1 (ENum (NInt (-3))) = Ok (EMul (NRat 8 27) [(vx, e_int (-6)); (vy, e_int 3)]))
    by (vm_compute; reflexivity).
  assert (ED : e_div 6 p1 p2 = Ok (EMul (NCplx 0 1 (-3) 2) [(vx, e_int 5); (vy, e_int (-2))]))
    by (vm_compute; reflexivity).
  rewrite EP, ED.
  (* the values agree by the soundness theorems; evaluating both sides of the power would multiply
     unreduced fractions of several hundred digits *)
  destruct (pow_int_sound rho rhoc _ _ _ _ P1 D1 PD1 EP) as [VP _].
  destruct (div_sound rho rhoc _ _ _ _ M1 P2 D1 D2 PD2 ED) as [VD _].
  rewrite (proj2 (qi_eqb_iff _ _) VP), (proj2 (qi_eqb_iff _ _) VD).
  assert (NZ : ~ qi_is_zero (denote rho rhoc p1)) by (apply qi_zerob_spec; vm_compute; reflexivity).
  destruct (qi_eqb _ qi_zero) eqn:Z.
  - apply qi_eqb_iff in Z. exfalso. apply (powz_nz _ (-3) NZ). unfold qi_is_zero. now rewrite <- VP.
  - vm_compute. reflexivity.
Qed.
