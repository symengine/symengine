(* C19 obligation: shared subexpressions are restored.  The decoder returns the labelled DAG that
   was encoded: the same ids at the same positions, and all positions carrying one id hold one and
   the same node (the table entry created at the first occurrence). *)
From SE Require Import Codec.CodecSpec Codec.CodecRoundtrip.
Local Open Scope N_scope.
Theorem C19_sharing_restored :
  forall (sw : bool) (ver : N * N) (G : N -> option wtree) (w : wtree),
    fst ver < 65536 -> snd ver < 65536 ->
    (forall s, In s (subtrees w) -> node_ok s) -> dag G w ->
    decode_lab ver (encode sw ver w) = Ok w /\
    forall s1 s2, In s1 (subtrees w) -> In s2 (subtrees w) -> wt_addr s1 = wt_addr s2 -> s1 = s2.
Proof.
  intros sw ver G w V1 V2 NO DG. split; [eapply decode_encode_lab; eassumption | exact (dag_inj G w DG)].
Qed.
Print Assumptions C19_sharing_restored.
