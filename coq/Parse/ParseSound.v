(* C17 -- grammar_conventional: the tree returned by the table-driven precedence-climbing parser
   is a derivation, in the stratified grammar of ParseSpec.v, of exactly the tokens it consumed,
   and the parser stops only in front of a token that cannot continue the expression at the
   requested level (maximal munch).  The proof uses the precedence table read from parser.yy only
   through [prec_conv] and the four unary levels: a changed %left/%right line breaks it. *)
From SE Require Import Parse.ParseSpec Parse.ParseProofs.
From Coq Require Import Lia ZifyBool ZifyN.
Local Open Scope N_scope.

Lemma G_le : forall k k' ts t, k <= k' -> k' <= 11 -> G k' ts t -> G k ts t.
Proof.
  intros k k' ts t. apply (level_down (fun j => G j ts t)). intros j. apply G_up.
Qed.

Lemma Prim_G11 : forall ts t, Prim ts t -> G 11 ts t.
Proof.
  intros ts t H. destruct H; [apply G_atom|apply G_neg|apply G_pos|apply G_implpow|apply G_impl]; assumption.
Qed.

Lemma GL_low : forall p ts t, p <= 10 -> (GL p ts t <-> G p ts t).
Proof. intros p ts t H. unfold GL. destruct (p <=? 10) eqn:E; [tauto|lia]. Qed.
Lemma GL_mid : forall p ts t, 11 <= p -> p <= 13 -> (GL p ts t <-> G 11 ts t).
Proof.
  intros p ts t H1 H2. unfold GL. destruct (p <=? 10) eqn:E; [lia|].
  destruct (p <=? 13) eqn:E2; [tauto|lia].
Qed.
Lemma GL_high : forall p ts t, 14 <= p -> (GL p ts t <-> Prim ts t).
Proof.
  intros p ts t H. unfold GL. destruct (p <=? 10) eqn:E; [lia|].
  destruct (p <=? 13) eqn:E2; [lia|tauto].
Qed.

Lemma GL_of_G11 : forall p ts t, p <= 13 -> G 11 ts t -> GL p ts t.
Proof.
  intros p ts t Hp H. destruct (N.le_gt_cases p 10).
  - apply GL_low; [assumption|]. apply (G_le p 11); [lia|lia|assumption].
  - apply GL_mid; [lia|lia|assumption].
Qed.

Lemma GL_G : forall p ts t, p <= 11 -> GL p ts t -> G p ts t.
Proof.
  intros p ts t Hp H. destruct (N.le_gt_cases p 10).
  - apply GL_low in H; assumption.
  - apply GL_mid in H; [|lia|lia]. replace p with 11 by lia. assumption.
Qed.

Lemma munch_no_pow : forall p r, p <= 13 -> next_binop p r = None -> after_pow r = None.
Proof.
  intros p r Hp H. destruct r as [|t r0]; [reflexivity|].
  destruct t; try reflexivity.
  exfalso. change TPow with (token_of_binop BPow) in H.
  apply next_binop_none_cons in H. simpl in H. lia.
Qed.

Definition sound_rec (rec : N -> list token -> presult) : Prop :=
  forall p ts t r, rec p ts = Ok (t, r) ->
    (exists pre, ts = pre ++ r /\ GL p pre t) /\ next_binop p r = None.

(* what the operator loop knows about the operand read so far.  LS_prim: it is the primary just
   read, and ** can follow only if it is an atom.  LS_lev: operators were taken, it is an E_cur, and no
   operator of a level above cur follows; cur is the level of the last operator, or 11 after **,
   which is also taken when minp is 11..13 (hence the second alternative). *)
Inductive lstate (minp : N) (pre : list token) (left : past) (ts : list token) : Prop :=
| LS_prim : Prim pre left -> (Atom pre left \/ after_pow ts = None) -> lstate minp pre left ts
| LS_lev : forall cur,
    (minp <= cur \/ 11 <= cur) -> cur <= 11 -> minp <= 13 ->
    G cur pre left -> next_binop (cur + 1) ts = None -> lstate minp pre left ts.

Lemma lstate_GL : forall minp pre left ts, lstate minp pre left ts -> GL minp pre left.
Proof.
  intros minp pre left ts H. destruct H as [Hp _|cur Hc1 Hc2 Hm Hg _].
  - destruct (N.le_gt_cases minp 13).
    + apply GL_of_G11; [assumption|]. apply Prim_G11. assumption.
    + apply GL_high; [lia|assumption].
  - destruct (N.le_gt_cases minp 10).
    + apply GL_low; [assumption|]. apply (G_le minp cur); [lia|lia|assumption].
    + apply GL_mid; [lia|lia|]. replace 11 with cur by lia. assumption.
Qed.

Section Sound.
  Variable rec : N -> list token -> presult.
  Hypothesis Hrec : sound_rec rec.

  (* the two kinds of recursive call: at level 0, and at a level of the factor *)
  Lemma rec_E0 : forall ts a r, rec 0 ts = Ok (a, r) -> exists pre, ts = pre ++ r /\ G 0 pre a.
  Proof.
    intros ts a r E. destruct (Hrec _ _ _ _ E) as [[pre [Hts Hg]] _].
    exists pre. split; [exact Hts|]. apply GL_low in Hg; [exact Hg|discriminate].
  Qed.

  Lemma rec_factor : forall p ts a r, 11 <= p -> p <= 13 -> rec p ts = Ok (a, r) ->
    exists pre, ts = pre ++ r /\ G 11 pre a /\ after_pow r = None.
  Proof.
    intros p ts a r H1 H2 E. destruct (Hrec _ _ _ _ E) as [[pre [Hts Hg]] Hm].
    exists pre. split; [exact Hts|]. split; [apply (GL_mid p); assumption|].
    exact (munch_no_pow p r H2 Hm).
  Qed.

  (* a prefix operator whose operand is read at a level of the factor *)
  Lemma prefix_sound : forall p r0 (k : past -> past) l r, 11 <= p -> p <= 13 ->
    on_ok (rec p r0) (fun '(a, r') => Ok (k a, r')) = Ok (l, r) ->
    exists pre a, r0 = pre ++ r /\ l = k a /\ G 11 pre a /\ after_pow r = None.
  Proof.
    intros p r0 k l r H1 H2 H. destruct (on_ok_ok H) as [[a r'] [E H0]]. injection H0 as <- <-.
    destruct (rec_factor p r0 a r' H1 H2 E) as [pre [Hr0 [Hg Hm]]].
    exists pre, a. split; [exact Hr0|]. split; [reflexivity|]. split; assumption.
  Qed.

  Lemma pargs_sound : forall n ts l r,
    pargs rec n ts = Ok (l, r) -> exists pre, ts = pre ++ r /\ Args pre l.
  Proof.
    induction n as [|n IH]; intros ts l r H; [discriminate|]. cbn [pargs] in H.
    destruct (rec 0 ts) as [[a r0]| | |] eqn:E; try discriminate.
    apply rec_E0 in E. destruct E as [pre0 [-> Hg]].
    destruct (after_op 44 r0) as [r1|] eqn:E1.
    - apply after_op_eq in E1. subst r0.
      destruct (pargs rec n r1) as [[l' r']| | |] eqn:E2; try discriminate.
      inversion H; subst. destruct (IH r1 l' r E2) as [pre1 [-> Ha]].
      exists (pre0 ++ TOp 44 :: pre1). split; [rewrite <- app_assoc; reflexivity|].
      apply Args_cons; assumption.
    - destruct (after_op 41 r0) as [r1|] eqn:E2; [|discriminate].
      apply after_op_eq in E2. inversion H; subst.
      exists (pre0 ++ [TOp 41]). split; [rewrite <- app_assoc; reflexivity|].
      apply Args_one. assumption.
  Qed.

  Lemma pepair_sound : forall ts e c r,
    pepair rec ts = Ok ((e, c), r) ->
    exists pe pc, ts = TOp 40 :: pe ++ TOp 44 :: pc ++ TOp 41 :: r /\ G 0 pe e /\ G 0 pc c.
  Proof.
    intros ts e c r H. unfold pepair in H.
    destruct (after_op 40 ts) as [r0|] eqn:E0; [|discriminate]. apply after_op_eq in E0.
    destruct (rec 0 r0) as [[e' r1]| | |] eqn:E; try discriminate.
    apply rec_E0 in E. destruct E as [pe [Hr0 Hge]].
    destruct (after_op 44 r1) as [r2|] eqn:E1; [|discriminate]. apply after_op_eq in E1.
    destruct (rec 0 r2) as [[c' r3]| | |] eqn:E2; try discriminate.
    apply rec_E0 in E2. destruct E2 as [pc [Hr2 Hgc]].
    destruct (after_op 41 r3) as [r4|] eqn:E3; [|discriminate]. apply after_op_eq in E3.
    inversion H; subst. exists pe, pc. split; [|split; assumption].
    repeat (rewrite <- app_assoc; simpl). reflexivity.
  Qed.

  Lemma ppairs_sound : forall n ts l r,
    ppairs rec n ts = Ok (l, r) -> exists pre, ts = pre ++ r /\ Pairs pre l.
  Proof.
    induction n as [|n IH]; intros ts l r H; [discriminate|]. cbn [ppairs] in H.
    destruct (pepair rec ts) as [[[e c] r0]| | |] eqn:E; try discriminate.
    destruct (pepair_sound ts e c r0 E) as [pe [pc [-> [Hge Hgc]]]].
    destruct (after_op 44 r0) as [r1|] eqn:E1.
    - apply after_op_eq in E1. subst r0.
      destruct (ppairs rec n r1) as [[l' r']| | |] eqn:E2; try discriminate.
      inversion H; subst. destruct (IH r1 l' r E2) as [pre1 [-> Hp]].
      exists (TOp 40 :: pe ++ TOp 44 :: pc ++ TOp 41 :: TOp 44 :: pre1).
      split; [repeat (cbn [app]; rewrite <- app_assoc); reflexivity|].
      apply Pairs_cons; assumption.
    - destruct (after_op 41 r0) as [r1|] eqn:E2; [|discriminate].
      apply after_op_eq in E2. inversion H; subst.
      exists (TOp 40 :: pe ++ TOp 44 :: pc ++ [TOp 41; TOp 41]).
      split; [repeat (cbn [app]; rewrite <- app_assoc); reflexivity|].
      apply Pairs_one; assumption.
  Qed.

  (* a primary is a prefix-or-atom form; if it is not an atom, no ** follows it *)
  Lemma primary_sound : forall ts l r,
    primary rec ts = Ok (l, r) ->
    exists pre, ts = pre ++ r /\ Prim pre l /\ (Atom pre l \/ after_pow r = None).
  Proof using Hrec.
    intros ts l r H. unfold primary in H.
    assert (Hatom : forall pre, Atom pre l -> Prim pre l /\ (Atom pre l \/ after_pow r = None))
      by (intros pre Ha; split; [apply P_atom; exact Ha|left; exact Ha]).
    destruct ts as [|t0 r0]; [discriminate|].
    destruct t0; try discriminate.
    - destruct (N.eqb_spec c 45) as [->|_].
      { rewrite lvl_uminus in H.
        destruct (prefix_sound LEVEL_UMINUS r0 PNeg l r) as [pre [a [-> [-> [Hg Hm]]]]];
          [discriminate|discriminate|exact H|]. exists (TOp 45 :: pre).
        split; [reflexivity|]. split; [apply P_neg; exact Hg|right; exact Hm]. }
      destruct (N.eqb_spec c 43) as [->|_].
      { rewrite lvl_uplus in H.
        destruct (prefix_sound LEVEL_UPLUS r0 (fun a => a) l r) as [pre [a [-> [-> [Hg Hm]]]]];
          [discriminate|discriminate|exact H|]. exists (TOp 43 :: pre).
        split; [reflexivity|]. split; [apply P_pos; exact Hg|right; exact Hm]. }
      destruct (N.eqb_spec c 126) as [->|_].
      { rewrite lvl_not in H.
        destruct (rec LEVEL_NOT r0) as [[a r']| | |] eqn:E; try discriminate.
        injection H as <- <-. destruct (Hrec _ _ _ _ E) as [[pre [-> Hg]] _].
        apply GL_high in Hg; [|discriminate].
        exists (TOp 126 :: pre). split; [reflexivity|]. apply Hatom, A_not, Hg. }
      destruct (N.eqb_spec c 40) as [->|_]; [|discriminate].
      destruct (rec 0 r0) as [[a r1]| | |] eqn:E; try discriminate.
      apply rec_E0 in E. destruct E as [pre [-> Hg]].
      destruct (after_op 41 r1) as [r'|] eqn:E1; [|discriminate].
      apply after_op_eq in E1. subst r1. injection H as <- <-.
      exists (TOp 40 :: pre ++ [TOp 41]). split; [simpl; rewrite <- app_assoc; reflexivity|].
      apply Hatom, A_paren, Hg.
    - destruct (after_op 40 r0) as [r1|] eqn:E0; [|discriminate]. apply after_op_eq in E0. subst r0.
      destruct (ppairs rec (S (List.length r1)) r1) as [[l' r']| | |] eqn:E; try discriminate.
      injection H as <- <-. destruct (ppairs_sound _ _ _ _ E) as [pre [-> Hp]].
      exists (TPiecewise :: TOp 40 :: pre). split; [reflexivity|]. apply Hatom, A_pw, Hp.
    - destruct (after_op 40 r0) as [r1|] eqn:E0.
      + apply after_op_eq in E0. subst r0.
        destruct (pargs rec (S (List.length r1)) r1) as [[l' r']| | |] eqn:E; try discriminate.
        injection H as <- <-. destruct (pargs_sound _ _ _ _ E) as [pre [-> Hp]].
        exists (TIdent s :: TOp 40 :: pre). split; [reflexivity|]. apply Hatom, A_call, Hp.
      + injection H as <- <-. exists [TIdent s]. split; [reflexivity|]. apply Hatom, A_ident.
    - injection H as <- <-. exists [TNum s]. split; [reflexivity|]. apply Hatom, A_num.
    - destruct (after_pow r0) as [r1|] eqn:E0.
      + apply after_pow_eq in E0. subst r0. rewrite lvl_pow in H.
        destruct (prefix_sound LEVEL_POW r1 (PImplPow s) l r) as [pre [e [-> [-> [Hg Hm]]]]];
          [discriminate|discriminate|exact H|]. exists (TImpl s :: TPow :: pre).
        split; [reflexivity|]. split; [apply P_implpow; exact Hg|right; exact Hm].
      + injection H as <- <-. exists [TImpl s]. split; [reflexivity|].
        split; [apply P_impl|right; assumption].
  Qed.

  (* one iteration of the operator loop preserves the state *)
  Lemma loop_step : forall minp pre left ts op rp r0 c r' prec,
    lstate minp pre left ts ->
    next_binop minp ts = Some (op, rp, r0) ->
    r0 = prec ++ r' -> GL rp prec c -> next_binop rp r' = None ->
    lstate minp (pre ++ token_of_binop op :: prec) (PBin op left c) r'.
  Proof.
    intros minp pre left ts op rp r0 c r' prec Hst Hnb Hr0 Hgc Hm.
    apply next_binop_some in Hnb. destruct Hnb as [Hts [Hmin Hrp]]. subst rp.
    destruct (level_range op) as [Hlow|Hpow].
    - (* a left-associative operator of level k <= 10 *)
      assert (Hleft : G (conv_level op) pre left).
      { destruct Hst as [Hp _|cur Hc1 Hc2 Hm13 Hg Hnone].
        - apply (G_le _ 11); [lia|lia|]. apply Prim_G11. assumption.
        - rewrite Hts in Hnone. apply next_binop_none_cons in Hnone.
          apply (G_le _ cur); [lia|lia|assumption]. }
      rewrite (rhs_level_low op Hlow) in *. apply GL_G in Hgc; [|lia].
      apply (LS_lev _ _ _ _ (conv_level op)); [left; exact Hmin|lia|lia| |assumption].
      apply G_bin; [lia|reflexivity|assumption|assumption].
    - (* ** : the left operand is an atom *)
      assert (Hop : op = BPow) by (destruct op; try discriminate; reflexivity).
      subst op. cbn [rhs_level conv_level] in *.
      assert (Hatom : Atom pre left).
      { destruct Hst as [Hp [Ha|Hnp]|cur Hc1 Hc2 Hm13 Hg Hnone].
        - assumption.
        - rewrite Hts in Hnp. discriminate.
        - rewrite Hts in Hnone. change TPow with (token_of_binop BPow) in Hnone.
          apply next_binop_none_cons in Hnone. simpl in Hnone. lia. }
      apply GL_mid in Hgc; [|discriminate|discriminate].
      apply (LS_lev _ _ _ _ 11); [right; discriminate|discriminate|exact Hmin| |].
      + apply G_pow; assumption.
      + apply (next_binop_unary _ 13); [discriminate|discriminate|assumption].
  Qed.

  Lemma ploop_sound : forall n minp left ts t r pre0,
    lstate minp pre0 left ts ->
    ploop rec n minp left ts = Ok (t, r) ->
    exists pre, pre0 ++ ts = pre ++ r /\ GL minp pre t /\ next_binop minp r = None.
  Proof using Hrec.
    (* in front of a token that is no operator of level >= minp the loop returns its operand, and the
       state gives the derivation (second branch, for both values of the counter) *)
    induction n as [|n IH]; intros minp left ts t r pre0 Hst H; cbn [ploop] in H;
      (destruct (next_binop minp ts) as [[[op rp] r0]|] eqn:E;
       [|inversion H; subst; exists pre0; split; [reflexivity|];
         split; [apply (lstate_GL _ _ _ r)|]; assumption]).
    - discriminate.
    - destruct (rec rp r0) as [[c r']| | |] eqn:E2; try discriminate.
      destruct (Hrec _ _ _ _ E2) as [[prec [Hr0 Hgc]] Hm].
      pose proof (loop_step _ _ _ _ _ _ _ _ _ _ Hst E Hr0 Hgc Hm) as Hst'.
      destruct (IH _ _ _ _ _ _ Hst' H) as [pre [Hr' Hg]].
      apply next_binop_some in E. destruct E as [-> _]. subst r0.
      exists pre. split; [|exact Hg]. rewrite <- Hr', <- app_assoc. reflexivity.
  Qed.
End Sound.

Theorem pexpr_sound : forall f, sound_rec (pexpr f).
Proof.
  induction f as [|f IH]; intros p ts t r H; [discriminate|]. rewrite pexpr_S in H.
  destruct (primary (pexpr f) ts) as [[l r1]| | |] eqn:E; try discriminate.
  destruct (primary_sound _ IH _ _ _ E) as [pre1 [-> [Hp Hd]]].
  destruct (ploop_sound _ IH _ _ _ _ _ _ _ (LS_prim _ _ _ _ Hp Hd) H) as [pre [Hr1 [Hg Hn]]].
  split; [|exact Hn]. exists pre. split; assumption.
Qed.

(* C17 grammar_conventional: an accepted token list is END_OF_FILE preceded by a derivation of
   the returned tree from the start symbol E_0 *)
Theorem grammar_conventional : forall ts t,
  parse_tokens ts = TopOk t -> exists pre, ts = pre ++ [TEnd] /\ G 0 pre t.
Proof.
  intros ts t H. apply parse_tokens_ok in H.
  destruct (pexpr_sound _ _ _ _ _ H) as [[pre [Hts Hg]] _].
  exists pre. split; [assumption|]. apply GL_low in Hg; [assumption|lia].
Qed.
