(* C17 -- Parser::parse_numeric: a literal made of decimal digits only denotes its base-10 value
   (whatever the leading zeros, whatever the size: the strtol path and the overflow path
   integer_class(expr) agree), every other literal takes the floating-point path.
   The base argument of strtol is read from parser.cpp (Gen_Names.strtol_base): with base 0
   (the unfixed code: "010" = 8, "08" = 8.0) these proofs fail. *)
From SE Require Import Parse.ParseModel.
From Coq Require Import Lia ZifyBool ZifyN ZifyNat.
Local Open Scope N_scope.

(* schoolbook value of a digit string *)
Definition decimal_acc (acc : Z) (ds : list N) : Z :=
  fold_left (fun a c => (a * 10 + Z.of_N (c - 48))%Z) ds acc.
Definition decimal_value (ds : list N) : Z := decimal_acc 0 ds.

Lemma digit_val_dig : forall c, is_dig c = true -> digit_val c = Some (c - 48) /\ c - 48 < 10.
Proof.
  intros c H. unfold digit_val. rewrite H. split; [reflexivity|].
  unfold is_dig in H. lia.
Qed.

Lemma digit_val_nondig : forall c, is_dig c = false ->
  match digit_val c with Some d => 10 <= d | None => True end.
Proof.
  intros c H. unfold digit_val. rewrite H.
  destruct ((97 <=? c) && (c <=? 122)) eqn:E1; [lia|].
  destruct ((65 <=? c) && (c <=? 90)) eqn:E2; [lia|exact I].
Qed.

(* strtol_digits in base 10, byte by byte *)
Lemma strtol_digits_dig : forall c acc n r, is_dig c = true ->
  strtol_digits 10 acc n (c :: r) = strtol_digits 10 (acc * 10 + Z.of_N (c - 48))%Z (S n) r.
Proof.
  intros c acc n r H. cbn [strtol_digits]. destruct (digit_val_dig c H) as [-> Hlt].
  rewrite (proj2 (N.ltb_lt _ _) Hlt). reflexivity.
Qed.

Lemma strtol_digits_nondig : forall c acc n r, is_dig c = false ->
  strtol_digits 10 acc n (c :: r) = (acc, n, c :: r).
Proof.
  intros c acc n r H. cbn [strtol_digits]. pose proof (digit_val_nondig c H) as Hn.
  destruct (digit_val c) as [d|]; [|reflexivity]. rewrite (proj2 (N.ltb_ge _ _) Hn). reflexivity.
Qed.

Lemma strtol_digits_all : forall ds acc n, forallb is_dig ds = true ->
  strtol_digits 10 acc n ds = (decimal_acc acc ds, (n + List.length ds)%nat, []).
Proof.
  induction ds as [|c ds IH]; intros acc n H.
  - cbn. rewrite Nat.add_0_r. reflexivity.
  - cbn [forallb] in H. apply andb_true_iff in H. destruct H as [Hc Hds].
    rewrite (strtol_digits_dig _ _ _ _ Hc), (IH _ _ Hds). cbn [List.length]. rewrite Nat.add_succ_r.
    reflexivity.
Qed.

Lemma dec_value_all : forall ds acc, forallb is_dig ds = true ->
  dec_value acc ds = Some (decimal_acc acc ds).
Proof.
  induction ds as [|c ds IH]; intros acc H; simpl; [reflexivity|].
  simpl in H. apply andb_true_iff in H. destruct H as [Hc Hds]. rewrite Hc. apply IH. assumption.
Qed.

Lemma mem_dot_digits : forall ds, forallb is_dig ds = true -> mem 46 ds = false.
Proof.
  unfold mem. induction ds as [|c ds IH]; intros H; [reflexivity|].
  cbn [existsb]. cbn [forallb] in H. apply andb_true_iff in H. destruct H as [Hc Hds].
  rewrite (IH Hds). unfold is_dig in Hc. destruct (N.eqb_spec 46 c); [lia|reflexivity].
Qed.

Lemma base_is_10 : strtol_base = 10.
Proof. reflexivity. Qed.

(* strtol in base 10: no prefix is skipped *)
Lemma strtol_10 : forall s,
  strtol 10 s =
  let '(v, n, _) := strtol_digits 10 0 0 s in
  match n with
  | O => (0%Z, 0%nat, false)
  | _ => if (LONG_MAX <? v)%Z then (LONG_MAX, n, true) else (v, n, false)
  end.
Proof. reflexivity. Qed.

(* C17 parse_numeric_decimal *)
Theorem parse_numeric_decimal : forall ds,
  ds <> [] -> forallb is_dig ds = true -> parse_numeric ds = NumInt (decimal_value ds).
Proof.
  intros ds Hne Hd. unfold parse_numeric.
  rewrite base_is_10, strtol_10, (strtol_digits_all ds 0%Z 0%nat Hd), (mem_dot_digits ds Hd).
  destruct ds as [|c ds']; [congruence|]. cbn [List.length Nat.add].
  fold (decimal_value (c :: ds')).
  destruct (LONG_MAX <? decimal_value (c :: ds'))%Z; cbv iota beta; rewrite Nat.eqb_refl; cbn [negb andb].
  - rewrite (dec_value_all _ 0%Z Hd). reflexivity.
  - reflexivity.
Qed.

(* the digits strtol consumes in base 10 are decimal digits: it stops at the first other byte *)
Lemma strtol_digits_stop : forall bs acc n v n' rest,
  strtol_digits 10 acc n bs = (v, n', rest) ->
  (n' + List.length rest = n + List.length bs)%nat /\ (rest = [] -> forallb is_dig bs = true).
Proof.
  induction bs as [|c bs IH]; intros acc n v n' rest H.
  - inversion H; subst. split; reflexivity.
  - destruct (is_dig c) eqn:Ed.
    + rewrite (strtol_digits_dig _ _ _ _ Ed) in H. apply IH in H. destruct H as [H1 H2].
      cbn [List.length forallb]. rewrite Nat.add_succ_r, Ed. split; [exact H1|exact H2].
    + rewrite (strtol_digits_nondig _ _ _ _ Ed) in H. inversion H; subst.
      split; [reflexivity|discriminate].
Qed.

(* decimal-point and exponent literals ("1.5", ".5", "5.", "1e3", "1E+3"): anything that is not a
   plain digit string is converted by the floating-point path *)
Theorem parse_numeric_float : forall s,
  forallb is_dig s = false -> parse_numeric s = NumFloat s.
Proof.
  intros s Hd. unfold parse_numeric. rewrite base_is_10, strtol_10.
  destruct (strtol_digits 10 0%Z 0%nat s) as [[v n] rest] eqn:E.
  apply strtol_digits_stop in E. destruct E as [E1 E2].
  assert (Hn : (n < List.length s)%nat).
  { destruct rest; [rewrite E2 in Hd by reflexivity; discriminate|]. simpl in E1. lia. }
  assert (En : forall m, (m <= n)%nat -> Nat.eqb m (List.length s) = false)
    by (intros m Hm; apply Nat.eqb_neq; lia).
  destruct n as [|n0]; [|destruct (LONG_MAX <? v)%Z]; cbv iota beta; rewrite En, andb_false_r by lia;
    reflexivity.
Qed.
