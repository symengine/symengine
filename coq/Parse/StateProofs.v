(* C18 -- the Parser object as a state machine:
     - parse_total: for every byte string the reference parser returns a value (a recipe of
       library calls) or ParseError; it never runs out of fuel (fuel = input length + 1)
     - parser_stateless: the outcome of Parser::parse never depends on the state left by the
       previous calls (every field read during a call -- the input copy, the tokenizer cursor,
       res -- is written first in that call), so a reused parser answers every input of any
       history exactly as a fresh parser does -- also after failed parses, which leave in `res`
       either the previous result or a partial one
     - NUL: bytes after the first NUL do not influence the outcome. *)
From SE Require Import Parse.ParseModel Parse.LexProofs Parse.ParseProofs.
From Coq Require Import Lia.
Local Open Scope N_scope.

(* what a call returns, in terms of the syntactic part alone: the state does not occur *)
Lemma parser_parse_outcome : forall st input conv,
  snd (parser_parse st input conv) =
  match parse_syntax input conv with
  | TopOk t => OutValue (denote t)
  | TopErrAssigned _ | TopErr => OutParseError
  | TopFuel => OutFuel
  end.
Proof.
  intros st input conv. unfold parser_parse, parse_syntax, visible. simpl.
  destruct (lex (convert_xor conv input)) as [ts|]; [|reflexivity].
  destruct (parse_tokens ts); reflexivity.
Qed.

Theorem parser_stateless : forall st input conv,
  snd (parser_parse st input conv) = snd (parser_parse fresh_parser input conv).
Proof. intros st input conv. rewrite !parser_parse_outcome. reflexivity. Qed.

Corollary parser_parse_is_parse_ref : forall st input conv,
  snd (parser_parse st input conv) = parse_ref input conv.
Proof. intros. unfold parse_ref. apply parser_stateless. Qed.

(* a history of inputs on one parser object = each input on a fresh parser *)
Theorem history_stateless : forall h st,
  snd (run_history st h) = List.map (fun p => parse_ref (fst p) (snd p)) h.
Proof.
  induction h as [|[s conv] h IH]; intros st; [reflexivity|].
  simpl. destruct (parser_parse st s conv) as [st1 o] eqn:E.
  specialize (IH st1). destruct (run_history st1 h) as [st2 os]. simpl in *.
  f_equal; [|assumption].
  pose proof (parser_parse_is_parse_ref st s conv) as H. rewrite E in H. exact H.
Qed.

(* the state does change: after a failed parse `res` may hold a partial result *)
Example res_after_failed_parse :
  ps_res (fst (parser_parse fresh_parser (b "a b") true)) = Some (RSym (b "a")) /\
  snd (parser_parse fresh_parser (b "a b") true) = OutParseError /\
  ps_res (fst (parser_parse fresh_parser (b "(a b") true)) = None.
Proof. vm_compute. repeat split; reflexivity. Qed.

Theorem parse_syntax_total : forall bs conv, parse_syntax bs conv <> TopFuel.
Proof.
  intros bs conv. unfold parse_syntax.
  destruct (lex (convert_xor conv bs)) as [ts|] eqn:E.
  - apply parse_tokens_total.
  - exfalso. apply (lex_total _ E).
Qed.

(* C18 parse_total *)
Theorem parse_total : forall bs conv, parse_ref bs conv <> OutFuel.
Proof.
  intros bs conv. unfold parse_ref. rewrite parser_parse_outcome.
  pose proof (parse_syntax_total bs conv) as Ht.
  destruct (parse_syntax bs conv); try discriminate. congruence.
Qed.

(* bytes after the first NUL are never looked at *)
Lemma convert_xor_app : forall conv a z, convert_xor conv (a ++ z) = convert_xor conv a ++ convert_xor conv z.
Proof. intros conv a z. unfold convert_xor. destruct conv; [apply map_app|reflexivity]. Qed.

Lemma convert_xor_nonul : forall conv a, nonul a -> nonul (convert_xor conv a).
Proof.
  intros conv a H. unfold convert_xor. destruct conv; [|assumption].
  unfold nonul in *. induction a as [|c a IH]; [reflexivity|].
  simpl in *. apply andb_true_iff in H. destruct H as [Hc Ha]. rewrite (IH Ha).
  destruct (N.eqb_spec c 94); [reflexivity|]. rewrite Hc. reflexivity.
Qed.

Lemma parse_syntax_stops_at_nul : forall pre post conv,
  nonul pre -> parse_syntax (pre ++ 0 :: post) conv = parse_syntax pre conv.
Proof.
  intros pre post conv Hnz. unfold parse_syntax. rewrite convert_xor_app.
  replace (convert_xor conv (0 :: post)) with (0 :: convert_xor conv post) by (destruct conv; reflexivity).
  rewrite (lex_stops_at_nul _ _ (convert_xor_nonul conv pre Hnz)). reflexivity.
Qed.

Theorem parse_stops_at_nul : forall pre post conv,
  nonul pre -> parse_ref (pre ++ 0 :: post) conv = parse_ref pre conv.
Proof.
  intros pre post conv Hnz. unfold parse_ref.
  rewrite !parser_parse_outcome, parse_syntax_stops_at_nul by assumption. reflexivity.
Qed.
