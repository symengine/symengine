(* C17 -- completeness of the reference parser for the conventional grammar (without the prefix
   operator `~`, whose precedence above ** has no conventional counterpart): every token list
   derived from E_k is accepted, with exactly the tree of the derivation, whenever the token that
   follows cannot continue the expression.  Together with ParseSound.v: on this grammar the
   table-driven parser returns the tree the conventional rules dictate, and nothing else; in
   particular the grammar is unambiguous (two derivations of one token list have the same tree). *)
From SE Require Import Parse.ParseSpec Parse.ParseProofs Parse.ParseSound.
From Coq Require Import Lia ZifyBool ZifyN ZifyNat.
Local Open Scope N_scope.

Inductive Gp : N -> list token -> past -> Prop :=
| Gp_up : forall k ts t, k < 11 -> Gp (k + 1) ts t -> Gp k ts t
| Gp_bin : forall k op a c ta tc,
    k < 11 -> conv_level op = k -> Gp k a ta -> Gp (k + 1) c tc ->
    Gp k (a ++ token_of_binop op :: c) (PBin op ta tc)
| Gp_neg : forall a ta, Gp 11 a ta -> Gp 11 (TOp 45 :: a) (PNeg ta)
| Gp_pos : forall a ta, Gp 11 a ta -> Gp 11 (TOp 43 :: a) ta
| Gp_pow : forall a c ta tc, AtomP a ta -> Gp 11 c tc -> Gp 11 (a ++ TPow :: c) (PBin BPow ta tc)
| Gp_implpow : forall s c tc, Gp 11 c tc -> Gp 11 (TImpl s :: TPow :: c) (PImplPow s tc)
| Gp_atom : forall a ta, AtomP a ta -> Gp 11 a ta
| Gp_impl : forall s, Gp 11 [TImpl s] (PImpl s)
with AtomP : list token -> past -> Prop :=
| AP_num : forall s, AtomP [TNum s] (PNum s)
| AP_ident : forall s, AtomP [TIdent s] (PIdent s)
| AP_paren : forall a ta, Gp 0 a ta -> AtomP (TOp 40 :: a ++ [TOp 41]) ta
| AP_call : forall f l tl, ArgsP l tl -> AtomP (TIdent f :: TOp 40 :: l) (PCall f tl)
| AP_pw : forall l tl, PairsP l tl -> AtomP (TPiecewise :: TOp 40 :: l) (PPw tl)
with ArgsP : list token -> list past -> Prop :=
| ArgsP_one : forall a ta, Gp 0 a ta -> ArgsP (a ++ [TOp 41]) [ta]
| ArgsP_cons : forall a ta l tl, Gp 0 a ta -> ArgsP l tl -> ArgsP (a ++ TOp 44 :: l) (ta :: tl)
with PairsP : list token -> list (past * past) -> Prop :=
| PairsP_one : forall e te c tc,
    Gp 0 e te -> Gp 0 c tc ->
    PairsP (TOp 40 :: e ++ TOp 44 :: c ++ [TOp 41; TOp 41]) [(te, tc)]
| PairsP_cons : forall e te c tc l tl,
    Gp 0 e te -> Gp 0 c tc -> PairsP l tl ->
    PairsP (TOp 40 :: e ++ TOp 44 :: c ++ TOp 41 :: TOp 44 :: l) ((te, tc) :: tl).

Scheme Gp_mind := Induction for Gp Sort Prop
  with AtomP_mind := Induction for AtomP Sort Prop
  with ArgsP_mind := Induction for ArgsP Sort Prop
  with PairsP_mind := Induction for PairsP Sort Prop.
Combined Scheme Gp_mutind from Gp_mind, AtomP_mind, ArgsP_mind, PairsP_mind.

(* it is a sub-grammar of G *)
Lemma Gp_sub :
  (forall k ts t, Gp k ts t -> G k ts t) /\ (forall ts t, AtomP ts t -> Atom ts t) /\
  (forall ts l, ArgsP ts l -> Args ts l) /\ (forall ts l, PairsP ts l -> Pairs ts l).
Proof.
  apply Gp_mutind; intros; solve [econstructor; eassumption].
Qed.

Lemma Gp_le : forall k k' ts t, k <= k' -> k' <= 11 -> Gp k' ts t -> Gp k ts t.
Proof.
  intros k k' ts t. apply (level_down (fun j => Gp j ts t)). intros j. apply Gp_up.
Qed.

Definition Ev (F : nat -> Prop) : Prop := exists f0, forall f, (f0 <= f)%nat -> F f.

Lemma Ev_const : forall P : Prop, P -> Ev (fun _ => P).
Proof. intros P H. exists 0%nat. intros. exact H. Qed.

(* a successful sub-parse leaves a suffix *)
Lemma pexpr_rest_len : forall f p ts t r, pexpr f p ts = Ok (t, r) -> (List.length r <= List.length ts)%nat.
Proof.
  intros f p ts t r H. destruct (pexpr_sound f p ts t r H) as [[pre [Hts _]] _].
  subst ts. rewrite app_length. lia.
Qed.

(* with sub-parser [pexpr f], the loop entered with operand [t] in front of [rest] ends with [res],
   whatever its counter above the length of [rest] *)
Definition LoopsTo (f : nat) (minp : N) (t : past) (rest : list token) (res : past * list token) : Prop :=
  forall n, (List.length rest <= n)%nat -> ploop (pexpr f) n minp t rest = Ok res.

Lemma loops_none : forall f minp t rest,
  next_binop minp rest = None -> LoopsTo f minp t rest (t, rest).
Proof. intros f minp t rest H n _. apply ploop_none. exact H. Qed.

Lemma loops_step : forall f minp left op r0 c r' res,
  minp <= conv_level op -> pexpr f (rhs_level op) r0 = Ok (c, r') ->
  LoopsTo f minp (PBin op left c) r' res -> LoopsTo f minp left (token_of_binop op :: r0) res.
Proof.
  intros f minp left op r0 c r' res Hl H1 H2 n Hn. apply pexpr_rest_len in H1 as Hlen.
  destruct n as [|n]; [simpl in Hn; lia|]. cbn [ploop].
  rewrite next_binop_tok, (proj2 (N.leb_le _ _) Hl), H1. apply H2. simpl in Hn. lia.
Qed.

Lemma pexpr_primary_loop : forall f minp ts l r res,
  primary (pexpr f) ts = Ok (l, r) -> LoopsTo f minp l r res -> pexpr (S f) minp ts = Ok res.
Proof. intros f minp ts l r res H1 H2. cbn [pexpr]. rewrite H1. apply H2. apply le_n. Qed.

(* What a derivation gives, for every fuel above the length of the input (the parser consumes a
   token before each recursive call).  [CG]: a derivation of [pre] from E_k, in front of a [rest]
   that does not continue it, makes [pexpr] at any level [minp] that E_k serves (for the factor
   level 11 these are the levels up to 13) read [pre] and go on with the operator loop on [rest]. *)
Definition CG (k : N) (pre : list token) (t : past) : Prop :=
  forall f minp rest res,
    minp <= k \/ k = 11 /\ minp <= 13 ->
    next_binop (k + 1) rest = None -> after_op 40 rest = None ->
    (List.length (pre ++ rest) <= f)%nat ->
    LoopsTo f minp t rest res -> pexpr (S f) minp (pre ++ rest) = Ok res.
Definition CA (a : list token) (ta : past) : Prop :=
  forall f rest, after_op 40 rest = None -> (List.length (a ++ rest) <= f)%nat ->
    primary (pexpr f) (a ++ rest) = Ok (ta, rest).
Definition CArgs (l : list token) (tl : list past) : Prop :=
  forall f rest n, (List.length (l ++ rest) < f)%nat -> (List.length (l ++ rest) < n)%nat ->
    pargs (pexpr f) n (l ++ rest) = Ok (tl, rest).
Definition CPairs (l : list token) (tl : list (past * past)) : Prop :=
  forall f rest n, (List.length (l ++ rest) < f)%nat -> (List.length (l ++ rest) < n)%nat ->
    ppairs (pexpr f) n (l ++ rest) = Ok (tl, rest).

(* the parser, evaluated on the tokens that are known *)
Ltac on_tokens := cbn [app primary pepair after_op after_pow is_tok_op N.eqb Pos.eqb].

Lemma app_cons_assoc : forall A (a : list A) x l r, (a ++ x :: l) ++ r = a ++ x :: (l ++ r).
Proof. intros. rewrite <- app_assoc. reflexivity. Qed.

(* a complete expression at level 0 followed by ')' or ',' *)
Lemma CG0_closed : forall a ta c rest f,
  CG 0 a ta -> c = 41 \/ c = 44 -> (List.length (a ++ TOp c :: rest) <= f)%nat ->
  pexpr (S f) 0 (a ++ TOp c :: rest) = Ok (ta, TOp c :: rest).
Proof.
  intros a ta c rest f H Hc Hf.
  apply H; [left; apply N.le_refl| | |exact Hf|apply loops_none]; destruct Hc; subst; reflexivity.
Qed.

Lemma complete_up : forall k ts t, k < 11 -> CG (k + 1) ts t -> CG k ts t.
Proof.
  intros k ts t Hk IH f minp rest res Hm Hnb Hpar Hf Hl.
  apply IH; try assumption; [lia|]. apply (next_binop_mono (k + 1)); [lia|assumption].
Qed.

(* E_k op E_{k+1}: the left operand is read as an E_k whose loop then takes op *)
Lemma complete_bin : forall k op a c ta tc,
  k < 11 -> conv_level op = k -> CG k a ta -> CG (k + 1) c tc ->
  CG k (a ++ token_of_binop op :: c) (PBin op ta tc).
Proof.
  intros k op a c ta tc Hk Hlev IHa IHc f minp rest res Hm Hnb Hpar Hf Hl.
  rewrite app_cons_assoc in *. rewrite app_length in Hf. cbn [List.length] in Hf.
  apply IHa.
  - left. lia.
  - rewrite next_binop_tok, (proj2 (N.leb_gt _ _)); [reflexivity|lia].
  - destruct op; reflexivity.
  - rewrite app_length. cbn [List.length]. lia.
  - destruct f as [|f]; [lia|].
    apply (loops_step _ _ _ _ _ tc rest); [lia| |assumption].
    rewrite rhs_level_low by lia. rewrite Hlev.
    apply IHc; try assumption; [lia| |lia|apply loops_none; assumption].
    apply (next_binop_mono (k + 1)); [lia|assumption].
Qed.

(* a factor read at one of the levels 11..13 *)
Lemma complete_factor : forall f p a ta rest,
  CG 11 a ta -> 11 <= p <= 13 -> next_binop 12 rest = None -> after_op 40 rest = None ->
  (List.length (a ++ rest) <= f)%nat -> pexpr (S f) p (a ++ rest) = Ok (ta, rest).
Proof.
  intros f p a ta rest IH Hp Hnb Hpar Hf.
  apply IH; try assumption; [right; lia|].
  apply loops_none. apply (next_binop_unary _ 12); [lia|lia|assumption].
Qed.

(* a prefix form of the factor: [primary] reads the tokens [hd] and hands what follows to the parser
   at one of the levels 11..13 *)
Lemma complete_prefix : forall hd p (k : past -> past) c tc,
  hd <> [] -> 11 <= p <= 13 ->
  (forall f r, primary (pexpr f) (hd ++ r) = on_ok (pexpr f p r) (fun '(a, r') => Ok (k a, r'))) ->
  CG 11 c tc -> CG 11 (hd ++ c) (k tc).
Proof.
  intros hd p k c tc Hhd Hp Hprim IH f minp rest res Hm Hnb Hpar Hf Hl.
  rewrite <- app_assoc in *. rewrite app_length in Hf.
  assert (Hlen : (0 < List.length hd)%nat) by (destruct hd; [congruence|simpl; lia]).
  destruct f as [|f]; [lia|].
  apply (pexpr_primary_loop _ _ _ (k tc) rest); [|assumption].
  rewrite Hprim, (complete_factor f p c tc rest IH); [reflexivity|assumption|assumption|assumption|lia].
Qed.

Lemma complete_neg : forall a ta, CG 11 a ta -> CG 11 (TOp 45 :: a) (PNeg ta).
Proof.
  intros a ta IH.
  apply (complete_prefix [TOp 45] LEVEL_UMINUS PNeg); [discriminate|unfold LEVEL_UMINUS; lia| |exact IH].
  intros f r. on_tokens. rewrite lvl_uminus. reflexivity.
Qed.

Lemma complete_pos : forall a ta, CG 11 a ta -> CG 11 (TOp 43 :: a) ta.
Proof.
  intros a ta IH.
  apply (complete_prefix [TOp 43] LEVEL_UPLUS (fun t => t)); [discriminate|unfold LEVEL_UPLUS; lia| |exact IH].
  intros f r. on_tokens. rewrite lvl_uplus. reflexivity.
Qed.

(* atom ** factor: the atom is the primary, the loop takes ** *)
Lemma complete_pow : forall a c ta tc, CA a ta -> CG 11 c tc -> CG 11 (a ++ TPow :: c) (PBin BPow ta tc).
Proof.
  intros a c ta tc IHa IHc f minp rest res Hm Hnb Hpar Hf Hl.
  rewrite app_cons_assoc in *. rewrite app_length in Hf. cbn [List.length] in Hf.
  apply (pexpr_primary_loop _ _ _ ta (TPow :: c ++ rest)).
  - apply IHa; [reflexivity|]. rewrite app_length. cbn [List.length]. lia.
  - destruct f as [|f]; [lia|].
    apply (loops_step _ _ _ BPow _ tc rest); [simpl; lia| |assumption].
    apply complete_factor; try assumption; [simpl; lia|lia].
Qed.

Lemma complete_implpow : forall s c tc, CG 11 c tc -> CG 11 (TImpl s :: TPow :: c) (PImplPow s tc).
Proof.
  intros s c tc IH.
  apply (complete_prefix [TImpl s; TPow] LEVEL_POW (PImplPow s));
    [discriminate|unfold LEVEL_POW; lia| |exact IH].
  intros f r. on_tokens. rewrite lvl_pow. reflexivity.
Qed.

Lemma complete_atom : forall a ta, CA a ta -> CG 11 a ta.
Proof.
  intros a ta IH f minp rest res Hm Hnb Hpar Hf Hl.
  apply (pexpr_primary_loop _ _ _ ta rest); [|assumption]. apply IH; assumption.
Qed.

Lemma complete_impl : forall s, CG 11 [TImpl s] (PImpl s).
Proof.
  intros s f minp rest res Hm Hnb Hpar Hf Hl.
  apply (pexpr_primary_loop _ _ _ (PImpl s) rest); [|assumption].
  on_tokens. rewrite (munch_no_pow 12 rest); [reflexivity|discriminate|assumption].
Qed.

Lemma complete_paren : forall a ta, CG 0 a ta -> CA (TOp 40 :: a ++ [TOp 41]) ta.
Proof.
  intros a ta IH f rest Hpar Hf. cbn [app] in *. rewrite app_cons_assoc in *. cbn [app List.length] in *.
  destruct f as [|f]; [lia|].
  on_tokens. rewrite (CG0_closed a ta 41 rest f IH); [reflexivity|left; reflexivity|lia].
Qed.

Lemma complete_call : forall g l tl, CArgs l tl -> CA (TIdent g :: TOp 40 :: l) (PCall g tl).
Proof.
  intros g l tl IH f rest Hpar Hf. cbn [app List.length] in Hf.
  on_tokens. rewrite IH; [reflexivity|lia|lia].
Qed.

Lemma complete_pw : forall l tl, CPairs l tl -> CA (TPiecewise :: TOp 40 :: l) (PPw tl).
Proof.
  intros l tl IH f rest Hpar Hf. cbn [app List.length] in Hf.
  on_tokens. rewrite IH; [reflexivity|lia|lia].
Qed.

Lemma complete_args_one : forall a ta, CG 0 a ta -> CArgs (a ++ [TOp 41]) [ta].
Proof.
  intros a ta IH f rest n Hf Hn. rewrite app_cons_assoc in *. cbn [app] in *.
  destruct n as [|n]; [lia|]. destruct f as [|f]; [lia|].
  cbn [pargs]. rewrite (CG0_closed a ta 41 rest f IH); [reflexivity|left; reflexivity|lia].
Qed.

Lemma complete_args_cons : forall a ta l tl, CG 0 a ta -> CArgs l tl -> CArgs (a ++ TOp 44 :: l) (ta :: tl).
Proof.
  intros a ta l tl IHa IHl f rest n Hf Hn. rewrite app_cons_assoc in *.
  assert (Hlen := app_length a (TOp 44 :: l ++ rest)). cbn [List.length] in Hlen.
  destruct n as [|n]; [lia|]. destruct f as [|f]; [lia|].
  cbn [pargs]. rewrite (CG0_closed a ta 44 (l ++ rest) f IHa); [|right; reflexivity|lia].
  on_tokens. rewrite IHl; [reflexivity|lia|lia].
Qed.

(* '(' E_0 ',' E_0 ')' in front of [rest] *)
Lemma complete_pair : forall e te c tc f rest,
  CG 0 e te -> CG 0 c tc -> (List.length (e ++ TOp 44 :: c ++ TOp 41 :: rest) < f)%nat ->
  pepair (pexpr f) (TOp 40 :: e ++ TOp 44 :: c ++ TOp 41 :: rest) = Ok ((te, tc), rest).
Proof.
  intros e te c tc f rest IHe IHc Hf.
  assert (Hlen := app_length e (TOp 44 :: c ++ TOp 41 :: rest)). cbn [List.length] in Hlen.
  destruct f as [|f]; [lia|].
  on_tokens. rewrite (CG0_closed e te 44 _ f IHe); [|right; reflexivity|lia].
  on_tokens. rewrite (CG0_closed c tc 41 _ f IHc); [|left; reflexivity|lia].
  reflexivity.
Qed.

Lemma complete_pairs_one : forall e te c tc,
  CG 0 e te -> CG 0 c tc -> CPairs (TOp 40 :: e ++ TOp 44 :: c ++ [TOp 41; TOp 41]) [(te, tc)].
Proof.
  intros e te c tc IHe IHc f rest n Hf Hn.
  replace ((TOp 40 :: e ++ TOp 44 :: c ++ [TOp 41; TOp 41]) ++ rest)
    with (TOp 40 :: e ++ TOp 44 :: c ++ TOp 41 :: TOp 41 :: rest) in *
    by (cbn [app]; rewrite !app_cons_assoc; reflexivity).
  cbn [List.length] in Hf. destruct n as [|n]; [lia|].
  cbn [ppairs]. rewrite (complete_pair e te c tc f _ IHe IHc) by lia. reflexivity.
Qed.

Lemma complete_pairs_cons : forall e te c tc l tl,
  CG 0 e te -> CG 0 c tc -> CPairs l tl ->
  CPairs (TOp 40 :: e ++ TOp 44 :: c ++ TOp 41 :: TOp 44 :: l) ((te, tc) :: tl).
Proof.
  intros e te c tc l tl IHe IHc IHl f rest n Hf Hn.
  replace ((TOp 40 :: e ++ TOp 44 :: c ++ TOp 41 :: TOp 44 :: l) ++ rest)
    with (TOp 40 :: e ++ TOp 44 :: c ++ TOp 41 :: TOp 44 :: l ++ rest) in *
    by (cbn [app]; rewrite !app_cons_assoc; reflexivity).
  assert (Hlen : (List.length (l ++ rest) + 4 <=
                  List.length (TOp 40 :: e ++ TOp 44 :: c ++ TOp 41 :: TOp 44 :: l ++ rest))%nat)
    by (cbn [List.length]; repeat (rewrite app_length; cbn [List.length]); lia).
  cbn [List.length] in Hf, Hn, Hlen. destruct n as [|n]; [lia|].
  cbn [ppairs]. rewrite (complete_pair e te c tc f _ IHe IHc) by lia.
  on_tokens. rewrite IHl; [reflexivity|lia|lia].
Qed.

Theorem complete_all :
  (forall k pre t, Gp k pre t -> CG k pre t) /\ (forall a ta, AtomP a ta -> CA a ta) /\
  (forall l tl, ArgsP l tl -> CArgs l tl) /\ (forall l tl, PairsP l tl -> CPairs l tl).
Proof.
  apply Gp_mutind; intros.
  - apply complete_up; assumption.
  - apply complete_bin; assumption.
  - apply complete_neg; assumption.
  - apply complete_pos; assumption.
  - apply complete_pow; assumption.
  - apply complete_implpow; assumption.
  - apply complete_atom; assumption.
  - apply complete_impl.
  - intros f rest _ _. reflexivity.
  - intros f rest Hpar _. on_tokens. rewrite Hpar. reflexivity.
  - apply complete_paren; assumption.
  - apply complete_call; assumption.
  - apply complete_pw; assumption.
  - apply complete_args_one; assumption.
  - apply complete_args_cons; assumption.
  - apply complete_pairs_one; assumption.
  - apply complete_pairs_cons; assumption.
Qed.

(* C17 grammar_complete: a token list derived from the start symbol and followed by END_OF_FILE
   is accepted by parse_tokens with the tree of the derivation *)
Theorem grammar_complete : forall pre t, Gp 0 pre t -> parse_tokens (pre ++ [TEnd]) = TopOk t.
Proof.
  intros pre t H. apply parse_tokens_ok.
  apply (proj1 complete_all 0 pre t H);
    [left; reflexivity|reflexivity|reflexivity|apply le_n|apply loops_none; reflexivity].
Qed.

(* the grammar is unambiguous: the tree is a function of the token list *)
Corollary grammar_unambiguous : forall pre t1 t2, Gp 0 pre t1 -> Gp 0 pre t2 -> t1 = t2.
Proof.
  intros pre t1 t2 H1 H2. apply grammar_complete in H1. apply grammar_complete in H2. congruence.
Qed.
