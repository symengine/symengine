(* C16 -- the printed form of a sum does not depend on the order in which the unordered_map of
   the Add happens to iterate: StrPrinter copies the dictionary into a std::map ordered by
   PrinterBasicCmp, and for keys on which that comparator is a strict total order the sorted
   sequence -- hence the string -- is the same for every permutation of the dictionary.
   The order hypotheses are stated on the keys at hand, and discharged for well-formed sums. *)
From SE Require Import Parse.PrintModel.
From Coq Require Import Lia Permutation Sorted.
Local Open Scope N_scope.

Section Order.
  Variable P : expr -> Prop.
  Hypothesis lt_trans : forall x y z, P x -> P y -> P z ->
    printer_lt x y = true -> printer_lt y z = true -> printer_lt x z = true.
  Hypothesis lt_asym : forall x y, P x -> P y ->
    printer_lt x y = true -> printer_lt y x = true -> False.

  Definition R (p q : expr * number) : Prop := printer_lt (fst p) (fst q) = true.
  Definition keysP (m : list (expr * number)) : Prop := forall p, In p m -> P (fst p).
  Definition cmpable (p q : expr * number) : Prop := R p q \/ R q p.

  Lemma ins_in : forall k v m x, In x (pmap_insert k v m) -> x = (k, v) \/ In x m.
  Proof.
    induction m as [|[k' v'] m IH]; intros x H; cbn [pmap_insert] in H.
    - destruct H as [H|[]]. left. symmetry. exact H.
    - destruct (printer_lt k' k).
      + destruct H as [H|H]; [right; left; exact H|].
        destruct (IH x H) as [H1|H1]; [left; exact H1|right; right; exact H1].
      + destruct (printer_lt k k').
        * destruct H as [H|H]; [left; symmetry; exact H|right; exact H].
        * right. exact H.
  Qed.

  Lemma ins_sorted : forall k v m, P k -> keysP m ->
    StronglySorted R m -> StronglySorted R (pmap_insert k v m).
  Proof.
    induction m as [|[k' v'] m IH]; intros Pk Km S; cbn [pmap_insert].
    - constructor; constructor.
    - inversion S as [|? ? Stl Hhd]; subst.
      assert (Pk' : P k') by (apply (Km (k', v')); left; reflexivity).
      assert (Km' : keysP m) by (intros q Hq; apply Km; right; exact Hq).
      destruct (printer_lt k' k) eqn:L1.
      + constructor; [apply IH; assumption|].
        apply Forall_forall. intros x Hx. destruct (ins_in _ _ _ _ Hx) as [->|Hm].
        * exact L1.
        * eapply Forall_forall in Hhd; [exact Hhd|exact Hm].
      + destruct (printer_lt k k') eqn:L2; [|exact S].
        constructor; [exact S|].
        apply Forall_forall. intros x [<-|Hx]; [exact L2|].
        eapply Forall_forall in Hhd; [|exact Hx]. unfold R in *. simpl in *.
        apply (lt_trans k k' (fst x)); try assumption. apply Km'. exact Hx.
  Qed.

  Lemma ins_perm : forall k v m,
    (forall p, In p m -> cmpable p (k, v)) -> Permutation ((k, v) :: m) (pmap_insert k v m).
  Proof.
    induction m as [|[k' v'] m IH]; intros Hc; cbn [pmap_insert]; [apply Permutation_refl|].
    destruct (printer_lt k' k) eqn:L1.
    - eapply Permutation_trans; [apply perm_swap|]. apply perm_skip. apply IH.
      intros p Hp. apply Hc. right. exact Hp.
    - destruct (printer_lt k k') eqn:L2; [apply Permutation_refl|].
      exfalso. destruct (Hc (k', v')) as [H|H]; [left; reflexivity| |]; unfold R in H; simpl in H;
        congruence.
  Qed.

  Lemma ins_keysP : forall k v m, P k -> keysP m -> keysP (pmap_insert k v m).
  Proof.
    intros k v m Pk Km p Hp. destruct (ins_in _ _ _ _ Hp) as [->|H]; [exact Pk|apply Km; exact H].
  Qed.

  Definition step (m : list (expr * number)) (p : expr * number) := pmap_insert (fst p) (snd p) m.

  Lemma fold_sorted : forall d m, keysP d -> keysP m -> StronglySorted R m ->
    StronglySorted R (fold_left step d m) /\ keysP (fold_left step d m).
  Proof.
    induction d as [|[k v] d IH]; intros m Kd Km S; cbn [fold_left]; [split; assumption|].
    assert (Pk : P k) by (apply (Kd (k, v)); left; reflexivity).
    apply IH.
    - intros q Hq. apply Kd. right. exact Hq.
    - apply ins_keysP; assumption.
    - apply ins_sorted; assumption.
  Qed.

  (* distinct entries are comparable *)
  Definition all_cmp (l : list (expr * number)) : Prop :=
    NoDup l /\ forall p q, In p l -> In q l -> p = q \/ cmpable p q.

  Lemma all_cmp_perm : forall l1 l2, Permutation l1 l2 -> all_cmp l1 -> all_cmp l2.
  Proof.
    intros l1 l2 PM [ND H]. split; [eapply Permutation_NoDup; eassumption|].
    intros p q Hp Hq. apply H; eapply Permutation_in; try eassumption; apply Permutation_sym; exact PM.
  Qed.

  Lemma fold_perm : forall d m, all_cmp (m ++ d) -> Permutation (fold_left step d m) (m ++ d).
  Proof.
    induction d as [|[k v] d IH]; intros m A; cbn [fold_left].
    - rewrite app_nil_r. apply Permutation_refl.
    - assert (PI : Permutation ((k, v) :: m) (pmap_insert k v m)).
      { apply ins_perm. intros p Hp. destruct A as [ND H].
        destruct (H p (k, v)) as [E|C].
        - apply in_or_app. left. exact Hp.
        - apply in_or_app. right. left. reflexivity.
        - exfalso. subst p. apply NoDup_remove_2 in ND. apply ND. apply in_or_app. left. exact Hp.
        - exact C. }
      assert (PA : Permutation (m ++ (k, v) :: d) (pmap_insert k v m ++ d)).
      { eapply Permutation_trans; [apply Permutation_sym; apply Permutation_middle|].
        change ((k, v) :: m ++ d) with (((k, v) :: m) ++ d). apply Permutation_app_tail. exact PI. }
      eapply Permutation_trans; [apply IH; eapply all_cmp_perm; eassumption|].
      apply Permutation_sym. exact PA.
  Qed.

  Lemma sorted_perm_unique : forall l1 l2, keysP l1 ->
    StronglySorted R l1 -> StronglySorted R l2 -> Permutation l1 l2 -> l1 = l2.
  Proof.
    induction l1 as [|a l1 IH]; intros l2 K S1 S2 PM.
    - apply Permutation_nil in PM. subst. reflexivity.
    - destruct l2 as [|c l2]; [apply Permutation_sym in PM; apply Permutation_nil in PM; discriminate|].
      inversion S1 as [|? ? S1t H1]; subst. inversion S2 as [|? ? S2t H2]; subst.
      assert (Hac : a = c).
      { assert (Ia : In a (c :: l2)) by (eapply Permutation_in; [exact PM|left; reflexivity]).
        assert (Ic : In c (a :: l1))
          by (eapply Permutation_in; [apply Permutation_sym; exact PM|left; reflexivity]).
        destruct Ia as [E|Ia]; [symmetry; exact E|].
        destruct Ic as [E|Ic]; [exact E|].
        exfalso. eapply Forall_forall in H2; [|exact Ia]. eapply Forall_forall in H1; [|exact Ic].
        unfold R in *. apply (lt_asym (fst a) (fst c)); try assumption.
        - apply K. left. reflexivity.
        - apply K. right. exact Ic. }
      subst c. f_equal. apply IH; try assumption.
      + intros q Hq. apply K. right. exact Hq.
      + eapply Permutation_cons_inv. exact PM.
  Qed.

  Theorem pmap_of_perm : forall d d',
    Permutation d d' -> keysP d -> all_cmp d -> pmap_of d = pmap_of d'.
  Proof using lt_trans lt_asym.
    intros d d' PM K A. unfold pmap_of.
    assert (K' : keysP d') by (intros p Hp; apply K; eapply Permutation_in;
                               [apply Permutation_sym; exact PM|exact Hp]).
    assert (A' : all_cmp d') by (eapply all_cmp_perm; eassumption).
    assert (Knil : keysP []) by (intros p []).
    destruct (fold_sorted d [] K Knil (SSorted_nil R)) as [S1 K1].
    destruct (fold_sorted d' [] K' Knil (SSorted_nil R)) as [S2 _].
    apply sorted_perm_unique; try assumption.
    eapply Permutation_trans; [apply (fold_perm d []); exact A|].
    eapply Permutation_trans; [exact PM|]. apply Permutation_sym. apply (fold_perm d' []). exact A'.
  Qed.
End Order.

(* the size (fuel) of a sum does not depend on the order of its dictionary *)
Lemma add_size_perm : forall c d d', Permutation d d' -> size (EAdd c d) = size (EAdd c d').
Proof.
  intros c d d' PM. cbn [size]. f_equal.
  induction PM; cbn [fold_right]; lia.
Qed.

(* the order hypotheses on the keys of a dictionary *)
Definition printer_order_ok (d : list (expr * number)) : Prop :=
  NoDup d /\
  (forall x y z, In x (map fst d) -> In y (map fst d) -> In z (map fst d) ->
     printer_lt x y = true -> printer_lt y z = true -> printer_lt x z = true) /\
  (forall x y, In x (map fst d) -> In y (map fst d) ->
     printer_lt x y = true -> printer_lt y x = true -> False) /\
  (forall p q, In p d -> In q d ->
     p = q \/ printer_lt (fst p) (fst q) = true \/ printer_lt (fst q) (fst p) = true).

(* C16 print_respects_eq, the part that concerns the hash-ordered container: every permutation of
   the dictionary of a sum prints the same string *)
Theorem print_add_perm : forall c d d',
  Permutation d d' -> printer_order_ok d -> print (EAdd c d) = print (EAdd c d').
Proof.
  intros c d d' PM [ND [Ht [Ha Hc]]].
  unfold print. rewrite <- (add_size_perm c d d' PM).
  cbn [size]. cbn [pr_fuel print_node]. unfold print_add.
  rewrite (pmap_of_perm (fun k => In k (map fst d)) Ht Ha d d' PM).
  - reflexivity.
  - intros p Hp. apply in_map. exact Hp.
  - (* the last clause of printer_order_ok is that of all_cmp with cmpable and R unfolded *)
    split; [exact ND|exact Hc].
Qed.

(* the order hypotheses follow from the C02 theorems (compare is antisymmetric, transitive, and 0
   exactly on eq expressions) and from the pairwise-distinct keys of a well-formed dictionary *)
From SE Require Import Expr.CmpProofs Expr.Unfold Expr.Dict.

Lemma cmp_refl_wf : forall k, wf k = true -> expr_cmp k k = 0%Z.
Proof. intros k W. pose proof (cmp_antisym k k W W). lia. Qed.

Lemma eqb_refl_wf : forall k, wf k = true -> expr_eqb k k = true.
Proof. intros k W. apply (cmp_eq_iff k k W W). apply cmp_refl_wf. exact W. Qed.

Lemma printer_lt_spec : forall x y, wf x = true -> wf y = true ->
  (printer_lt x y = true <-> expr_cmp x y = (-1)%Z).
Proof.
  intros x y Wx Wy. unfold printer_lt. split.
  - destruct (expr_eqb x y); [discriminate|]. intros H. apply Z.eqb_eq in H. exact H.
  - intros H. destruct (expr_eqb x y) eqn:E.
    + apply (cmp_eq_iff x y Wx Wy) in E. lia.
    + apply Z.eqb_eq. exact H.
Qed.

(* on well-formed expressions PrinterBasicCmp is a strict total order *)
Lemma printer_lt_trans : forall x y z, wf x = true -> wf y = true -> wf z = true ->
  printer_lt x y = true -> printer_lt y z = true -> printer_lt x z = true.
Proof.
  intros x y z Wx Wy Wz Lxy Lyz.
  apply printer_lt_spec in Lxy; try assumption. apply printer_lt_spec in Lyz; try assumption.
  apply printer_lt_spec; try assumption. apply (cmp_trans x y z); assumption.
Qed.

Lemma printer_lt_asym : forall x y, wf x = true -> wf y = true ->
  printer_lt x y = true -> printer_lt y x = true -> False.
Proof.
  intros x y Wx Wy Lxy Lyx.
  apply printer_lt_spec in Lxy; try assumption. apply printer_lt_spec in Lyx; try assumption.
  pose proof (cmp_antisym x y Wx Wy). lia.
Qed.

Lemma printer_lt_total : forall x y, wf x = true -> wf y = true -> expr_eqb x y = false ->
  printer_lt x y = true \/ printer_lt y x = true.
Proof.
  intros x y Wx Wy E. destruct (cmp_range x y) as [C|[C|C]].
  - left. apply printer_lt_spec; assumption.
  - apply (cmp_eq_iff x y Wx Wy) in C. congruence.
  - right. apply printer_lt_spec; try assumption. pose proof (cmp_antisym y x Wy Wx). lia.
Qed.

Lemma pairwise_in : forall (d : list (expr * number)),
  (forall p, In p d -> wf (fst p) = true) -> pairwise_ne (map fst d) = true ->
  NoDup d /\
  (forall p q, In p d -> In q d ->
     p = q \/ expr_eqb (fst p) (fst q) = false \/ expr_eqb (fst q) (fst p) = false).
Proof.
  induction d as [|a d IH]; intros W NE.
  - split; [constructor|]. intros p q [].
  - cbn [map] in NE. apply pairwise_ne_cons in NE. destruct NE as [Hhd Htl].
    destruct IH as [ND Hpq]; [intros p Hp; apply W; right; exact Hp|exact Htl|].
    split.
    + constructor; [|exact ND]. intros Hin.
      assert (E : expr_eqb (fst a) (fst a) = false) by (apply Hhd; apply in_map; exact Hin).
      rewrite eqb_refl_wf in E; [discriminate|apply W; left; reflexivity].
    + intros p q [Hp|Hp] [Hq|Hq].
      * left. congruence.
      * subst p. right. left. apply Hhd. apply in_map. exact Hq.
      * subst q. right. right. apply Hhd. apply in_map. exact Hp.
      * apply Hpq; assumption.
Qed.

Lemma wf_printer_order_ok : forall c d, wf (EAdd c d) = true -> printer_order_ok d.
Proof.
  intros c d W. apply wf_add in W. destruct W as [_ [Wk NE]].
  assert (Wkey : forall k, In k (map fst d) -> wf k = true).
  { intros k Hk. apply in_map_iff in Hk. destruct Hk as [p [<- Hp]]. apply (Wk p Hp). }
  destruct (pairwise_in d (fun p Hp => proj1 (Wk p Hp)) NE) as [ND Hpq].
  split; [exact ND|]. split; [|split].
  - intros x y z Hx Hy Hz. apply printer_lt_trans; apply Wkey; assumption.
  - intros x y Hx Hy. apply printer_lt_asym; apply Wkey; assumption.
  - intros p q Hp Hq. destruct (Hpq p q Hp Hq) as [E|[E|E]]; [left; exact E|right..].
    + apply printer_lt_total; [apply (Wk p Hp)|apply (Wk q Hq)|exact E].
    + apply or_comm. apply printer_lt_total; [apply (Wk q Hq)|apply (Wk p Hp)|exact E].
Qed.

(* every permutation of the dictionary of a well-formed sum prints the same string *)
Theorem print_add_perm_wf : forall c d d',
  Permutation d d' -> wf (EAdd c d) = true -> print (EAdd c d) = print (EAdd c d').
Proof.
  intros c d d' PM W. apply print_add_perm; [exact PM|]. apply (wf_printer_order_ok c d W).
Qed.

(* C16 print_respects_eq is refuted as stated for ALL expressions: 0.0 and -0.0 are eq
   (RealDouble::__eq__ compares with ==) but print differently *)
Theorem print_respects_eq_refuted :
  exists a c : expr, expr_eqb a c = true /\ print a <> print c.
Proof.
  exists (ENum (NDbl 0)), (ENum (NDbl 9223372036854775808)).
  split; [vm_compute; reflexivity|]. vm_compute. discriminate.
Qed.
