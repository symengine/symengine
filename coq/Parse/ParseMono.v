(* Fuel monotonicity of the reference parser: a result other than "out of fuel" does not change
   when more fuel is given (to the recursive parser, or to the loop / list counters). *)
From SE Require Import Parse.ParseSpec Parse.ParseProofs.
From Coq Require Import Lia.
Local Open Scope N_scope.

Lemma err_of_fuel_inv : forall A B (e : res A), e <> ErrFuel -> @err_of A B e <> ErrFuel.
Proof. intros A B e H. destruct e; simpl; try discriminate. congruence. Qed.

(* [b] is what [a] becomes with more fuel *)
Definition res_le {A} (a b : res A) : Prop := a = ErrFuel \/ b = a.

Lemma res_le_refl : forall A (a : res A), res_le a a.
Proof. intros. right. reflexivity. Qed.

Lemma res_le_bind : forall A B (a a' : res A) (k k' : A -> res B),
  res_le a a' -> (forall x, res_le (k x) (k' x)) -> res_le (on_ok a k) (on_ok a' k').
Proof.
  intros A B a a' k k' [->| ->] Hk; [left; reflexivity|]. destruct a; [apply Hk|right..]; reflexivity.
Qed.
Arguments res_le_bind {A B a a' k k'}.

(* a call whose continuation does not call a parser again *)
Lemma res_le_call : forall A B (a a' : res A) (k : A -> res B), res_le a a' -> res_le (on_ok a k) (on_ok a' k).
Proof. intros A B a a' k H. apply (res_le_bind H). intros x. apply res_le_refl. Qed.
Arguments res_le_call {A B a a' k}.

Definition mono_rec (rec rec' : N -> list token -> presult) : Prop :=
  forall p ts, res_le (rec p ts) (rec' p ts).

Section Mono.
  Variables rec rec' : N -> list token -> presult.
  Hypothesis Hm : mono_rec rec rec'.

  Lemma pargs_mono : forall n n' ts, (n <= n')%nat -> res_le (pargs rec n ts) (pargs rec' n' ts).
  Proof.
    induction n as [|n IH]; intros n' ts Hn; [left; reflexivity|].
    destruct n' as [|n']; [lia|]. cbn [pargs].
    refine (res_le_bind (Hm 0 ts) _). intros [a r].
    destruct (after_op 44 r) as [r1|]; [|apply res_le_refl].
    refine (res_le_call (IH n' r1 _)). lia.
  Qed.

  Lemma pepair_mono : forall ts, res_le (pepair rec ts) (pepair rec' ts).
  Proof.
    intros ts. unfold pepair. destruct (after_op 40 ts) as [r|]; [|apply res_le_refl].
    refine (res_le_bind (Hm 0 r) _). intros [e r1].
    destruct (after_op 44 r1) as [r2|]; [|apply res_le_refl].
    exact (res_le_call (Hm 0 r2)).
  Qed.

  Lemma ppairs_mono : forall n n' ts, (n <= n')%nat -> res_le (ppairs rec n ts) (ppairs rec' n' ts).
  Proof.
    induction n as [|n IH]; intros n' ts Hn; [left; reflexivity|].
    destruct n' as [|n']; [lia|]. cbn [ppairs].
    refine (res_le_bind (pepair_mono ts) _). intros [p r].
    destruct (after_op 44 r) as [r1|]; [|apply res_le_refl].
    refine (res_le_call (IH n' r1 _)). lia.
  Qed.

  Lemma primary_mono : forall ts, res_le (primary rec ts) (primary rec' ts).
  Proof using Hm.
    intros ts. unfold primary.
    destruct ts as [|t0 r0]; [apply res_le_refl|]. destruct t0; try apply res_le_refl.
    - destruct (c =? 45); [exact (res_le_call (Hm _ r0))|].
      destruct (c =? 43); [exact (res_le_call (Hm _ r0))|].
      destruct (c =? 126); [exact (res_le_call (Hm _ r0))|].
      destruct (c =? 40); [exact (res_le_call (Hm _ r0))|apply res_le_refl].
    - destruct (after_op 40 r0) as [r1|]; [|apply res_le_refl].
      exact (res_le_call (ppairs_mono _ _ r1 (le_n _))).
    - destruct (after_op 40 r0) as [r1|]; [|apply res_le_refl].
      exact (res_le_call (pargs_mono _ _ r1 (le_n _))).
    - destruct (after_pow r0) as [r1|]; [|apply res_le_refl].
      exact (res_le_call (Hm _ r1)).
  Qed.

  Lemma ploop_mono : forall n n' minp left ts, (n <= n')%nat ->
    res_le (ploop rec n minp left ts) (ploop rec' n' minp left ts).
  Proof using Hm.
    induction n as [|n IH]; intros n' minp left ts Hn.
    - destruct (next_binop minp ts) as [[[op rp] r]|] eqn:E.
      + left. cbn [ploop]. rewrite E. reflexivity.
      + rewrite !(ploop_none _ _ _ _ _ E). apply res_le_refl.
    - destruct n' as [|n']; [lia|]. cbn [ploop].
      destruct (next_binop minp ts) as [[[op rp] r]|]; [|apply res_le_refl].
      refine (res_le_bind (Hm rp r) _). intros [c r']. apply IH. lia.
  Qed.
End Mono.

Lemma pexpr_mono_step : forall f, mono_rec (pexpr f) (pexpr (S f)).
Proof.
  induction f as [|f IH]; intros p ts; [left; reflexivity|]. rewrite !pexpr_S.
  refine (res_le_bind (primary_mono _ _ IH ts) _). intros [l r]. apply (ploop_mono _ _ IH), le_n.
Qed.

Theorem pexpr_mono : forall f f' p ts r,
  pexpr f p ts = r -> r <> ErrFuel -> (f <= f')%nat -> pexpr f' p ts = r.
Proof.
  intros f f' p ts r H Hr Hle. induction Hle as [|f' Hle IH]; [assumption|].
  destruct (pexpr_mono_step f' p ts); congruence.
Qed.
