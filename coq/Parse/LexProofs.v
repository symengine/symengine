(* C17 / C18 -- facts about the lexer model (tokenizer.re):
     - every token is a non-empty slice of the input (nothing is skipped but white space)
     - lex_total: lexing never runs out of fuel
     - scan_numeric_sound: what the lexer takes as `numeric` matches the regular expression
         (dig* "."? dig+ ([eE][-+]?dig+)?) | (dig+ ".")
     - lex_stops_at_nul: bytes after the first NUL never influence the token stream (the
       cursor never passes the terminator: only the rule `end` matches a NUL) *)
From SE Require Import Parse.Lexer.
From Coq Require Import Lia ZifyBool ZifyN ZifyNat.
Local Open Scope N_scope.

(* the next byte, if any, is outside the class *)
Definition stops (p : N -> bool) (z : list N) : Prop :=
  match z with [] => True | c :: _ => p c = false end.

Lemma span_spec : forall p l a z,
  span p l = (a, z) -> l = a ++ z /\ forallb p a = true /\ stops p z.
Proof.
  induction l as [|c l IH]; intros a z H; simpl in H.
  - inversion H. repeat split.
  - destruct (p c) eqn:Ec.
    + destruct (span p l) as [a1 z1]. inversion H; subst.
      destruct (IH _ _ eq_refl) as [-> [Ha Hz]]. simpl. rewrite Ec. repeat split; assumption.
    + inversion H; subst. repeat split. exact Ec.
Qed.

Lemma span_intro : forall p a z, forallb p a = true -> stops p z -> span p (a ++ z) = (a, z).
Proof.
  induction a as [|c a IH]; intros z Ha Hz; cbn [app].
  - destruct z as [|d z]; [reflexivity|]. cbn [span]. simpl in Hz. rewrite Hz. reflexivity.
  - cbn [forallb] in Ha. apply andb_true_iff in Ha. destruct Ha as [Hc Ha].
    cbn [span]. rewrite Hc, (IH z Ha Hz). reflexivity.
Qed.

Lemma span_split : forall p l a z, span p l = (a, z) -> l = a ++ z.
Proof. intros p l a z H. exact (proj1 (span_spec _ _ _ _ H)). Qed.

Lemma span_stop : forall p l a c z, span p l = (a, c :: z) -> p c = false.
Proof. intros p l a c z H. exact (proj2 (proj2 (span_spec _ _ _ _ H))). Qed.

(* a byte outside the class ends the span exactly as the end of input does *)
Lemma span_app_stop : forall p l x post a z,
  p x = false -> span p l = (a, z) -> span p (l ++ x :: post) = (a, z ++ x :: post).
Proof.
  intros p l x post a z Hx H. destruct (span_spec _ _ _ _ H) as [-> [Ha Hz]].
  rewrite <- app_assoc. apply span_intro; [exact Ha|]. destruct z; [exact Hx|exact Hz].
Qed.

Definition digits (ds : list N) : Prop := forallb is_dig ds = true.
Definition digits1 (ds : list N) : Prop := ds <> [] /\ digits ds.

(* ([eE][-+]?dig+)? *)
Definition exp_part (ex : list N) : Prop :=
  ex = [] \/ exists e sg ds, ex = e :: sg ++ ds /\ is_e e = true /\
                             (sg = [] \/ exists s, sg = [s] /\ is_sign s = true) /\ digits1 ds.

(* (dig* "."? dig+ exp?) | (dig+ ".") *)
Definition is_numeric (n : list N) : Prop :=
  (exists d1 dot d2 ex, n = d1 ++ dot ++ d2 ++ ex /\ digits d1 /\ (dot = [] \/ dot = [46]) /\
                        digits1 d2 /\ exp_part ex)
  \/ (exists d1, n = d1 ++ [46] /\ digits1 d1).

Lemma nonempty_true : forall A (l : list A), nonempty l = true -> l <> [].
Proof. intros A l H. destruct l; [discriminate|discriminate]. Qed.

Lemma digits1_intro : forall ds, nonempty ds = true -> digits ds -> digits1 ds.
Proof. intros ds Hn Hd. split; [apply nonempty_true; exact Hn|exact Hd]. Qed.

Lemma scan_exp_cons : forall e r1,
  scan_exp (e :: r1) =
  if is_e e then
    let '(sg, r2) := split_sign r1 in
    let '(ds, r3) := span is_dig r2 in
    if nonempty ds then (e :: sg ++ ds, r3) else ([], e :: r1)
  else ([], e :: r1).
Proof. reflexivity. Qed.

Lemma split_sign_sound : forall r1 sg r2,
  split_sign r1 = (sg, r2) ->
  r1 = sg ++ r2 /\ (sg = [] \/ exists s, sg = [s] /\ is_sign s = true).
Proof.
  intros r1 sg r2 H. unfold split_sign in H. destruct r1 as [|s r2'].
  - inversion H; subst. split; [reflexivity|left; reflexivity].
  - destruct (is_sign s) eqn:Es; inversion H; subst.
    + split; [reflexivity|right; exists s; split; [reflexivity|assumption]].
    + split; [reflexivity|left; reflexivity].
Qed.

Lemma scan_exp_sound : forall r ex r', scan_exp r = (ex, r') -> r = ex ++ r' /\ exp_part ex.
Proof.
  intros r ex r' H.
  destruct r as [|e r1]; [inversion H; subst; split; [reflexivity|left; reflexivity]|].
  rewrite scan_exp_cons in H.
  destruct (is_e e) eqn:Ee; [|inversion H; subst; split; [reflexivity|left; reflexivity]].
  destruct (split_sign r1) as [sg r2] eqn:Esg.
  destruct (split_sign_sound _ _ _ Esg) as [Hr1 Hsg].
  destruct (span is_dig r2) as [ds r3] eqn:Ed.
  destruct (nonempty ds) eqn:En.
  - inversion H; subst. destruct (span_spec _ _ _ _ Ed) as [-> [Hds _]].
    split; [simpl; rewrite <- app_assoc; reflexivity|].
    right. exists e, sg, ds. split; [reflexivity|]. split; [assumption|].
    split; [assumption|]. apply digits1_intro; assumption.
  - inversion H; subst. split; [reflexivity|left; reflexivity].
Qed.

Lemma scan_tail_cons : forall d1 c r2,
  scan_tail d1 (c :: r2) = if c =? 46 then scan_dot d1 r2 else scan_nodot d1 (c :: r2).
Proof. reflexivity. Qed.

Lemma scan_nodot_sound : forall d1 r1 n r,
  digits d1 -> scan_nodot d1 r1 = Some (n, r) -> d1 ++ r1 = n ++ r /\ n <> [] /\ is_numeric n.
Proof.
  intros d1 r1 n r Hd1 H0. unfold scan_nodot in H0.
  destruct (nonempty d1) eqn:En; [|discriminate].
  destruct (scan_exp r1) as [ex r4] eqn:Ee. inversion H0; subst.
  destruct (scan_exp_sound _ _ _ Ee) as [Hr1 Hex]. subst r1.
  split; [rewrite app_assoc; reflexivity|].
  split; [apply nonempty_true in En; destruct d1; [congruence|discriminate]|].
  left. exists [], [], d1, ex. split; [reflexivity|]. split; [reflexivity|].
  split; [left; reflexivity|]. split; [apply digits1_intro; assumption|assumption].
Qed.

Lemma scan_dot_sound : forall d1 r2 n r,
  digits d1 -> scan_dot d1 r2 = Some (n, r) -> d1 ++ 46 :: r2 = n ++ r /\ n <> [] /\ is_numeric n.
Proof.
  intros d1 r2 n r Hd1 H. unfold scan_dot in H.
  destruct (span is_dig r2) as [d2 r3] eqn:E2.
  destruct (span_spec _ _ _ _ E2) as [Hs2 [Hd2 _]].
  destruct (nonempty d2) eqn:En2.
  - destruct (scan_exp r3) as [ex r4] eqn:Ee. inversion H; subst.
    destruct (scan_exp_sound _ _ _ Ee) as [Hr3 Hex]. subst r3.
    split; [repeat (rewrite <- app_assoc; simpl); reflexivity|].
    split; [destruct d1; discriminate|].
    left. exists d1, [46], d2, ex. split; [reflexivity|]. split; [assumption|].
    split; [right; reflexivity|]. split; [apply digits1_intro; assumption|assumption].
  - destruct (nonempty d1) eqn:En1; [|discriminate]. inversion H; subst.
    split; [rewrite <- app_assoc; reflexivity|].
    split; [destruct d1; discriminate|].
    right. exists d1. split; [reflexivity|]. apply digits1_intro; assumption.
Qed.

Theorem scan_numeric_sound : forall bs n r,
  scan_numeric bs = Some (n, r) -> bs = n ++ r /\ n <> [] /\ is_numeric n.
Proof.
  intros bs n r H. unfold scan_numeric in H.
  destruct (span is_dig bs) as [d1 r1] eqn:E1.
  destruct (span_spec _ _ _ _ E1) as [-> [Hd1 _]].
  destruct r1 as [|c r2]; [apply (scan_nodot_sound d1 [] n r Hd1 H)|].
  rewrite scan_tail_cons in H.
  destruct (N.eqb_spec c 46) as [->|Hc].
  - apply (scan_dot_sound d1 r2 n r Hd1 H).
  - apply (scan_nodot_sound d1 (c :: r2) n r Hd1 H).
Qed.

(* lex_one, by the three kinds of token text: a numeric prefix with what follows it, a word,
   punctuation *)
Definition lex_after_num (num r1 : list N) : token * list N :=
  match r1 with
  | d :: _ =>
      if is_char d then let '(id, r2) := span is_identc r1 in (TImpl (num ++ id), r2)
      else (TNum num, r1)
  | [] => (TNum num, r1)
  end.
Definition lex_word (bs : list N) : token * list N :=
  let '(id, r1) := span is_identc bs in
  (if bytes_eq id piecewise_bytes then TPiecewise else TIdent id, r1).
Definition lex_punct (c : N) (r : list N) : token * list N :=
  match r with
  | d :: r' =>
      if (c =? 42) && (d =? 42) then (TPow, r')
      else if (c =? 60) && (d =? 61) then (TLe, r')
      else if (c =? 62) && (d =? 61) then (TGe, r')
      else if (c =? 33) && (d =? 61) then (TNe, r')
      else if (c =? 61) && (d =? 61) then (TEq, r')
      else if c =? 64 then (TPow, r)
      else if is_op c then (TOp c, r)
      else (TBad, r)
  | [] =>
      if c =? 64 then (TPow, r)
      else if is_op c then (TOp c, r)
      else (TBad, r)
  end.

Lemma lex_one_cons : forall c r,
  lex_one (c :: r) =
  if c =? 0 then (TEnd, c :: r)
  else match scan_numeric (c :: r) with
       | Some (num, r1) => lex_after_num num r1
       | None => if is_char c then lex_word (c :: r) else lex_punct c r
       end.
Proof. reflexivity. Qed.

Lemma lex_after_num_split : forall num r1 t r,
  lex_after_num num r1 = (t, r) -> exists id, r1 = id ++ r.
Proof.
  intros num r1 t r H. unfold lex_after_num in H.
  destruct r1 as [|d r1']; [inversion H; exists []; reflexivity|].
  destruct (is_char d); [|inversion H; exists []; reflexivity].
  destruct (span is_identc (d :: r1')) as [id r2] eqn:Ei. inversion H; subst.
  exists id. exact (span_split _ _ _ _ Ei).
Qed.

Lemma lex_word_split : forall c r0 t r,
  is_char c = true -> lex_word (c :: r0) = (t, r) -> exists id, c :: r0 = id ++ r /\ id <> [].
Proof.
  intros c r0 t r Hc H. unfold lex_word in H.
  destruct (span is_identc (c :: r0)) as [id r1] eqn:Ei. inversion H; subst.
  exists id. split; [exact (span_split _ _ _ _ Ei)|].
  cbn [span] in Ei. unfold is_identc in Ei at 1. rewrite Hc in Ei. cbn [orb] in Ei.
  destruct (span is_identc r0). inversion Ei. discriminate.
Qed.

(* punctuation is one byte or two *)
Lemma lex_punct_split : forall c r0 t r,
  lex_punct c r0 = (t, r) -> r0 = r \/ exists d, r0 = d :: r.
Proof.
  intros c r0 t r H. unfold lex_punct in H. destruct r0 as [|d r'].
  - left. destruct (c =? 64); [|destruct (is_op c)]; inversion H; reflexivity.
  - assert (Two : forall t', (t', r') = (t, r) -> d :: r' = r \/ exists d0, d :: r' = d0 :: r)
      by (intros t' E; inversion E; right; exists d; reflexivity).
    destruct ((c =? 42) && (d =? 42)); [exact (Two _ H)|].
    destruct ((c =? 60) && (d =? 61)); [exact (Two _ H)|].
    destruct ((c =? 62) && (d =? 61)); [exact (Two _ H)|].
    destruct ((c =? 33) && (d =? 61)); [exact (Two _ H)|].
    destruct ((c =? 61) && (d =? 61)); [exact (Two _ H)|].
    left. destruct (c =? 64); [|destruct (is_op c)]; inversion H; reflexivity.
Qed.

(* the text of the token is a prefix of the input; it is empty only for END_OF_FILE *)
Lemma lex_one_split : forall bs t r,
  lex_one bs = (t, r) -> exists txt, bs = txt ++ r /\ (t <> TEnd -> txt <> []).
Proof.
  intros bs t r H.
  destruct bs as [|c r0]; [inversion H; exists []; split; [reflexivity|congruence]|].
  rewrite lex_one_cons in H.
  destruct (c =? 0); [inversion H; subst; exists []; split; [reflexivity|congruence]|].
  destruct (scan_numeric (c :: r0)) as [[num r1]|] eqn:En.
  - destruct (scan_numeric_sound _ _ _ En) as [Hs [Hne _]].
    destruct (lex_after_num_split _ _ _ _ H) as [id ->].
    exists (num ++ id). split; [rewrite Hs, app_assoc; reflexivity|].
    intros _. destruct num; [congruence|discriminate].
  - destruct (is_char c) eqn:Ec.
    + destruct (lex_word_split _ _ _ _ Ec H) as [id [Hs Hid]].
      exists id. split; [exact Hs|intros _; exact Hid].
    + destruct (lex_punct_split _ _ _ _ H) as [->|[d ->]]; [exists [c]|exists [c; d]];
        (split; [reflexivity|intros _; discriminate]).
Qed.

Lemma lex_one_progress : forall bs t r,
  lex_one bs = (t, r) -> t <> TEnd -> (List.length r < List.length bs)%nat.
Proof.
  intros bs t r H Ht. destruct (lex_one_split _ _ _ H) as [txt [Hs Hne]].
  specialize (Hne Ht). subst bs. rewrite app_length. destruct txt; [congruence|simpl; lia].
Qed.

Lemma span_len : forall p l, (List.length (snd (span p l)) <= List.length l)%nat.
Proof.
  intros p l. destruct (span p l) as [a z] eqn:E. apply span_split in E. subst.
  simpl. rewrite app_length. lia.
Qed.

(* one step of the token stream: it ends at END_OF_FILE and at an unknown token *)
Definition is_stop (t : token) : bool := match t with TEnd | TBad => true | _ => false end.

Lemma lex_fuel_S : forall f bs,
  lex_fuel (S f) bs =
  let '(t, r) := lex_one (snd (span is_ws bs)) in
  if is_stop t then Some [t] else option_map (cons t) (lex_fuel f r).
Proof.
  intros f bs. cbn [lex_fuel]. destruct (lex_one (snd (span is_ws bs))) as [t r].
  destruct t; reflexivity.
Qed.

Lemma lex_fuel_total : forall f bs, (List.length bs < f)%nat -> lex_fuel f bs <> None.
Proof.
  induction f as [|f IH]; intros bs Hlen; [lia|].
  rewrite lex_fuel_S. pose proof (span_len is_ws bs) as Hw.
  destruct (lex_one (snd (span is_ws bs))) as [t r] eqn:E.
  destruct (is_stop t) eqn:Es; [discriminate|].
  apply lex_one_progress in E; [|intros ->; discriminate].
  specialize (IH r). destruct (lex_fuel f r); [discriminate|apply IH; lia].
Qed.

(* C18: lexing is total *)
Theorem lex_total : forall bs, lex bs <> None.
Proof. intros bs. unfold lex. apply lex_fuel_total. lia. Qed.

Lemma lex_fuel_mono : forall f bs l, lex_fuel f bs = Some l ->
  forall f', (f <= f')%nat -> lex_fuel f' bs = Some l.
Proof.
  induction f as [|f IH]; intros bs l H f' Hle; [discriminate|].
  destruct f' as [|f']; [lia|]. rewrite lex_fuel_S in *.
  destruct (lex_one (snd (span is_ws bs))) as [t r].
  destruct (is_stop t); [assumption|].
  destruct (lex_fuel f r) as [l0|] eqn:E0; [|discriminate].
  rewrite (IH r l0 E0 f') by lia. assumption.
Qed.

(* a result of [lex_fuel] is the result of [lex] *)
Lemma lex_fuel_stable : forall f bs l, lex_fuel f bs = Some l -> lex bs = Some l.
Proof.
  intros f bs l H. destruct (lex bs) as [l'|] eqn:E; [|exfalso; exact (lex_total _ E)].
  rewrite <- (lex_fuel_mono _ _ _ H (Nat.max f (S (List.length bs)))) by lia.
  symmetry. apply (lex_fuel_mono _ _ _ E). lia.
Qed.

Definition nonul (bs : list N) : Prop := forallb (fun c => negb (c =? 0)) bs = true.

Lemma nonul_app : forall a z, nonul (a ++ z) -> nonul z.
Proof.
  unfold nonul. intros a z H. rewrite forallb_app in H. apply andb_true_iff in H. tauto.
Qed.

Lemma split_sign_nul : forall r1 post sg r2,
  split_sign r1 = (sg, r2) -> split_sign (r1 ++ 0 :: post) = (sg, r2 ++ 0 :: post).
Proof.
  intros r1 post sg r2 H. destruct r1 as [|s r2'].
  - inversion H; subst. reflexivity.
  - change ((s :: r2') ++ 0 :: post) with (s :: (r2' ++ 0 :: post)).
    assert (Hc : forall r, split_sign (s :: r) = if is_sign s then ([s], r) else ([], s :: r))
      by reflexivity.
    rewrite Hc in *. destruct (is_sign s); inversion H; subst; reflexivity.
Qed.

Lemma scan_exp_nul : forall r post ex r',
  scan_exp r = (ex, r') -> scan_exp (r ++ 0 :: post) = (ex, r' ++ 0 :: post).
Proof.
  intros r post ex r' H.
  destruct r as [|e r1].
  - inversion H; subst. reflexivity.
  - change ((e :: r1) ++ 0 :: post) with (e :: (r1 ++ 0 :: post)).
    rewrite scan_exp_cons in *.
    destruct (is_e e); [|inversion H; subst; reflexivity].
    destruct (split_sign r1) as [sg r2] eqn:Esg.
    rewrite (split_sign_nul r1 post sg r2 Esg).
    destruct (span is_dig r2) as [ds r3] eqn:Ed.
    rewrite (span_app_stop is_dig r2 0 post ds r3 eq_refl Ed).
    destruct (nonempty ds); inversion H; subst; reflexivity.
Qed.

Lemma scan_nodot_nul : forall d1 r1 post,
  scan_nodot d1 (r1 ++ 0 :: post) =
  match scan_nodot d1 r1 with Some (n, r) => Some (n, r ++ 0 :: post) | None => None end.
Proof.
  intros d1 r1 post. unfold scan_nodot. destruct (nonempty d1); [|reflexivity].
  destruct (scan_exp r1) as [ex r4] eqn:Ee. rewrite (scan_exp_nul r1 post ex r4 Ee). reflexivity.
Qed.

Lemma scan_dot_nul : forall d1 r2 post,
  scan_dot d1 (r2 ++ 0 :: post) =
  match scan_dot d1 r2 with Some (n, r) => Some (n, r ++ 0 :: post) | None => None end.
Proof.
  intros d1 r2 post. unfold scan_dot.
  destruct (span is_dig r2) as [d2 r3] eqn:E2.
  rewrite (span_app_stop is_dig r2 0 post d2 r3 eq_refl E2).
  destruct (nonempty d2).
  - destruct (scan_exp r3) as [ex r4] eqn:Ee. rewrite (scan_exp_nul r3 post ex r4 Ee). reflexivity.
  - destruct (nonempty d1); reflexivity.
Qed.

Lemma scan_numeric_nul : forall bs post,
  scan_numeric (bs ++ 0 :: post) =
  match scan_numeric bs with Some (n, r) => Some (n, r ++ 0 :: post) | None => None end.
Proof.
  intros bs post. unfold scan_numeric.
  destruct (span is_dig bs) as [d1 r1] eqn:E1.
  rewrite (span_app_stop is_dig bs 0 post d1 r1 eq_refl E1).
  destruct r1 as [|c r2].
  - change ([] ++ 0 :: post) with (0 :: post). rewrite scan_tail_cons.
    change (0 =? 46) with false. cbv iota.
    change (0 :: post) with ([] ++ 0 :: post). apply scan_nodot_nul.
  - change ((c :: r2) ++ 0 :: post) with (c :: (r2 ++ 0 :: post)). rewrite !scan_tail_cons.
    destruct (c =? 46).
    + apply scan_dot_nul.
    + change (c :: r2 ++ 0 :: post) with ((c :: r2) ++ 0 :: post). apply scan_nodot_nul.
Qed.

Lemma lex_after_num_nul : forall num r1 post,
  lex_after_num num (r1 ++ 0 :: post) = let '(t, r) := lex_after_num num r1 in (t, r ++ 0 :: post).
Proof.
  intros num r1 post. unfold lex_after_num. destruct r1 as [|d r1']; [reflexivity|]. cbn [app].
  destruct (is_char d); [|reflexivity].
  destruct (span is_identc (d :: r1')) as [id r2] eqn:Ei.
  change (d :: r1' ++ 0 :: post) with ((d :: r1') ++ 0 :: post).
  rewrite (span_app_stop is_identc _ 0 post id r2 eq_refl Ei). reflexivity.
Qed.

Lemma lex_word_nul : forall bs post,
  lex_word (bs ++ 0 :: post) = let '(t, r) := lex_word bs in (t, r ++ 0 :: post).
Proof.
  intros bs post. unfold lex_word. destruct (span is_identc bs) as [id r1] eqn:Ei.
  rewrite (span_app_stop is_identc _ 0 post id r1 eq_refl Ei). reflexivity.
Qed.

(* a NUL is the second byte of no operator *)
Lemma lex_punct_nul : forall c r post,
  lex_punct c (r ++ 0 :: post) = let '(t, r') := lex_punct c r in (t, r' ++ 0 :: post).
Proof.
  intros c r post. unfold lex_punct. destruct r as [|d r']; cbn [app].
  - change (0 =? 42) with false. change (0 =? 61) with false. rewrite !andb_false_r.
    destruct (c =? 64); [|destruct (is_op c)]; reflexivity.
  - destruct ((c =? 42) && (d =? 42)); [reflexivity|].
    destruct ((c =? 60) && (d =? 61)); [reflexivity|].
    destruct ((c =? 62) && (d =? 61)); [reflexivity|].
    destruct ((c =? 33) && (d =? 61)); [reflexivity|].
    destruct ((c =? 61) && (d =? 61)); [reflexivity|].
    destruct (c =? 64); [|destruct (is_op c)]; reflexivity.
Qed.

Lemma lex_one_nul : forall bs post t r,
  bs <> [] -> nonul bs -> lex_one bs = (t, r) -> lex_one (bs ++ 0 :: post) = (t, r ++ 0 :: post).
Proof.
  intros bs post t r Hne Hnz H. destruct bs as [|c r0]; [congruence|].
  assert (Hc0 : (c =? 0) = false).
  { unfold nonul in Hnz. simpl in Hnz. apply andb_true_iff in Hnz. destruct Hnz as [Hc _].
    destruct (c =? 0); [discriminate|reflexivity]. }
  cbn [app]. rewrite lex_one_cons in *. rewrite Hc0 in *.
  change (c :: r0 ++ 0 :: post) with ((c :: r0) ++ 0 :: post). rewrite scan_numeric_nul.
  destruct (scan_numeric (c :: r0)) as [[num r1]|].
  - rewrite lex_after_num_nul, H. reflexivity.
  - destruct (is_char c).
    + rewrite lex_word_nul, H. reflexivity.
    + rewrite lex_punct_nul, H. reflexivity.
Qed.

Lemma lex_fuel_nul : forall f bs post, nonul bs -> lex_fuel f (bs ++ 0 :: post) = lex_fuel f bs.
Proof.
  induction f as [|f IH]; intros bs post Hnz; [reflexivity|].
  rewrite !lex_fuel_S. destruct (span is_ws bs) as [w bs1] eqn:Ew.
  rewrite (span_app_stop is_ws bs 0 post w bs1 eq_refl Ew). simpl snd.
  pose proof (span_split _ _ _ _ Ew) as Hs. subst bs. apply nonul_app in Hnz.
  destruct bs1 as [|c r0]; [reflexivity|].
  destruct (lex_one (c :: r0)) as [t r] eqn:E.
  rewrite (lex_one_nul (c :: r0) post t r); [|discriminate|assumption|assumption].
  destruct (lex_one_split _ _ _ E) as [txt [Hs _]].
  assert (Hr : nonul r) by (rewrite Hs in Hnz; apply nonul_app in Hnz; assumption).
  rewrite (IH r post Hr). reflexivity.
Qed.

(* C18 lex_stops_at_nul *)
Theorem lex_stops_at_nul : forall pre post, nonul pre -> lex (pre ++ 0 :: post) = lex pre.
Proof.
  intros pre post Hnz. destruct (lex pre) as [l|] eqn:E; [|exfalso; exact (lex_total _ E)].
  apply (lex_fuel_stable (S (List.length pre))). rewrite lex_fuel_nul by assumption. exact E.
Qed.
