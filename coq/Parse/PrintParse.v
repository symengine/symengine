(* C16 -- parse_print, PARTIAL: the round trip  bytes of str(e) -> lexer -> parser -> tree  for the
   fragment of nested powers over symbols and non-negative integers,

       e ::= Symbol (identifier-shaped name) | Integer n (n >= 0) | Pow e e

   i.e. the printer's rule "parenthesize base and exponent when their precedence is <= Pow"
   (_print_pow / parenthesizeLE) is exactly what the right-associative ** of the grammar needs:
   parse_syntax (print e) = TopOk (syn e), where syn mirrors e, for either setting of convert_xor.
   The full statement (all of Add / Mul / functions / relationals) is covered by the
   correspondence runs of check C16 only. *)
From SE Require Import Parse.ParseSpec Parse.ParseComplete Parse.LexProofs Parse.PrintModel.
From Coq Require Import Lia ZifyBool ZifyN ZifyNat.
Local Open Scope N_scope.

Definition ident_name (nm : list N) : bool :=
  match nm with
  | c :: r => is_char c && forallb is_identc r && negb (bytes_eq nm piecewise_bytes)
  | [] => false
  end.

Inductive powfrag : expr -> Prop :=
| PF_sym : forall nm, ident_name nm = true -> powfrag (ESym nm)
| PF_nat : forall n, powfrag (ENum (NInt (Z.of_N n)))
| PF_pow : forall a c, powfrag a -> powfrag c -> powfrag (EPow a c).

(* the tree the printed string denotes *)
Fixpoint syn (e : expr) : past :=
  match e with
  | ESym nm => PIdent nm
  | ENum (NInt z) => PNum (dec_Z z)
  | EPow a c => PBin BPow (syn a) (syn c)
  | _ => PNum []
  end.

(* the tokens of the printed string *)
Definition is_pow (e : expr) : bool := match e with EPow _ _ => true | _ => false end.
Fixpoint ptoks (e : expr) : list token :=
  match e with
  | ESym nm => [TIdent nm]
  | ENum (NInt z) => [TNum (dec_Z z)]
  | EPow a c =>
      (if is_pow a then TOp 40 :: ptoks a ++ [TOp 41] else ptoks a) ++ TPow ::
      (if is_pow c then TOp 40 :: ptoks c ++ [TOp 41] else ptoks c)
  | _ => []
  end.
Definition wrap (e : expr) : list token :=
  if is_pow e then TOp 40 :: ptoks e ++ [TOp 41] else ptoks e.

Lemma frag_derivation : forall e, powfrag e -> Gp 11 (ptoks e) (syn e) /\ AtomP (wrap e) (syn e).
Proof.
  induction 1 as [nm Hn|n|a c Ha [IHa1 IHa2] Hc [IHc1 IHc2]].
  - split; [apply Gp_atom|]; apply AP_ident.
  - split; [apply Gp_atom|]; cbn [syn ptoks wrap is_pow]; apply AP_num.
  - assert (G : Gp 11 (ptoks (EPow a c)) (syn (EPow a c))).
    { cbn [ptoks syn]. fold (wrap a). fold (wrap c). apply Gp_pow; [exact IHa2|].
      apply Gp_atom. exact IHc2. }
    split; [exact G|]. unfold wrap. cbn [is_pow]. apply AP_paren.
    apply (Gp_le 0 11); [lia|lia|exact G].
Qed.

Theorem frag_parse_tokens : forall e, powfrag e -> parse_tokens (ptoks e ++ [TEnd]) = TopOk (syn e).
Proof.
  intros e H. apply grammar_complete. apply (Gp_le 0 11); [lia|lia|].
  apply (proj1 (frag_derivation e H)).
Qed.

Definition text (t : token) : list N :=
  match t with
  | TIdent s | TNum s => s
  | TPow => [42; 42]
  | TOp c => [c]
  | _ => []
  end.
Fixpoint render (ts : list token) : list N :=
  match ts with [] => [] | t :: r => text t ++ render r end.

Lemma render_app : forall a c, render (a ++ c) = render a ++ render c.
Proof.
  induction a as [|t a IH]; intros c; [reflexivity|]. cbn [app render]. rewrite IH.
  rewrite app_assoc. reflexivity.
Qed.

Lemma render_wrap : forall e,
  render (wrap e) = if is_pow e then parens (render (ptoks e)) else render (ptoks e).
Proof.
  intros e. unfold wrap. destruct (is_pow e); [|reflexivity].
  cbn [render text]. rewrite render_app. cbn [render text]. rewrite app_nil_r. reflexivity.
Qed.

(* the first byte of what follows a number must not continue it *)
Definition stops_num (rest : list N) : Prop :=
  match rest with [] => True | c :: _ => is_dig c = false /\ is_char c = false /\ c <> 46 end.

Lemma is_char_not_dig : forall c, is_char c = true -> is_dig c = false.
Proof. intros c H. unfold is_char, is_dig in *. lia. Qed.
Lemma is_char_not_dot : forall c, is_char c = true -> (c =? 46) = false.
Proof. intros c H. unfold is_char in *. lia. Qed.
Lemma is_char_not_zero : forall c, is_char c = true -> (c =? 0) = false.
Proof. intros c H. unfold is_char in *. lia. Qed.

(* a word is no number *)
Lemma scan_numeric_char : forall c r, is_char c = true -> scan_numeric (c :: r) = None.
Proof.
  intros c r Hc. unfold scan_numeric. cbn [span]. rewrite (is_char_not_dig c Hc).
  rewrite scan_tail_cons, (is_char_not_dot c Hc). reflexivity.
Qed.

(* digits in front of a byte that does not continue a number are the numeric prefix *)
Lemma scan_numeric_digits : forall ds rest,
  ds <> [] -> forallb is_dig ds = true -> stops_num rest -> scan_numeric (ds ++ rest) = Some (ds, rest).
Proof.
  intros ds rest Hne Hd Hr.
  assert (He : scan_exp rest = ([], rest)).
  { destruct rest as [|e r]; [reflexivity|]. rewrite scan_exp_cons. destruct Hr as [_ [Hch _]].
    assert (Hee : is_e e = false) by (unfold is_e, is_char in *; lia). rewrite Hee. reflexivity. }
  assert (Hnd : scan_nodot ds rest = Some (ds, rest)).
  { unfold scan_nodot. destruct ds as [|d0 ds0]; [congruence|]. cbn [nonempty].
    rewrite He, app_nil_r. reflexivity. }
  assert (Hsp : span is_dig (ds ++ rest) = (ds, rest)).
  { apply span_intro; [exact Hd|]. destruct rest; [exact I|]. apply Hr. }
  unfold scan_numeric. rewrite Hsp. destruct rest as [|c r]; [exact Hnd|]. rewrite scan_tail_cons.
  destruct Hr as [_ [_ Hdot]]. destruct (N.eqb_spec c 46); [contradiction|exact Hnd].
Qed.

Lemma ident_name_spec : forall nm, ident_name nm = true ->
  exists c r, nm = c :: r /\ is_char c = true /\ forallb is_identc nm = true /\
              bytes_eq nm piecewise_bytes = false.
Proof.
  intros nm H. unfold ident_name in H. destruct nm as [|c r]; [discriminate|].
  apply andb_true_iff in H. destruct H as [H Hpw]. apply andb_true_iff in H. destruct H as [Hc Hall].
  exists c, r. split; [reflexivity|]. split; [exact Hc|]. split.
  - cbn [forallb]. unfold is_identc at 1. rewrite Hc. exact Hall.
  - destruct (bytes_eq (c :: r) piecewise_bytes); [discriminate|reflexivity].
Qed.

Lemma lex_one_ident : forall nm rest,
  ident_name nm = true -> stops is_identc rest -> lex_one (nm ++ rest) = (TIdent nm, rest).
Proof.
  intros nm rest Hn Hr. destruct (ident_name_spec nm Hn) as [c [r [-> [Hc [Hall Hpw]]]]].
  assert (Hsp : span is_identc ((c :: r) ++ rest) = (c :: r, rest)) by (apply span_intro; assumption).
  change ((c :: r) ++ rest) with (c :: r ++ rest) at 1.
  rewrite lex_one_cons, (is_char_not_zero c Hc), Hc, (scan_numeric_char c _ Hc).
  change (c :: r ++ rest) with ((c :: r) ++ rest). unfold lex_word. rewrite Hsp, Hpw. reflexivity.
Qed.

Lemma lex_one_num : forall ds rest,
  ds <> [] -> forallb is_dig ds = true -> stops_num rest -> lex_one (ds ++ rest) = (TNum ds, rest).
Proof.
  intros ds rest Hne Hd Hr. pose proof (scan_numeric_digits ds rest Hne Hd Hr) as Hnum.
  destruct ds as [|d0 ds0]; [congruence|].
  assert (Hd0 : (d0 =? 0) = false).
  { cbn [forallb] in Hd. apply andb_true_iff in Hd. destruct Hd as [Hd0 _].
    unfold is_dig in Hd0. lia. }
  change ((d0 :: ds0) ++ rest) with (d0 :: ds0 ++ rest) at 1. rewrite lex_one_cons, Hd0.
  change (d0 :: ds0 ++ rest) with ((d0 :: ds0) ++ rest). rewrite Hnum. unfold lex_after_num.
  destruct rest as [|c r]; [reflexivity|]. destruct Hr as [_ [Hch _]]. rewrite Hch. reflexivity.
Qed.

(* tokens of the fragment *)
Inductive ftok : token -> Prop :=
| FT_ident : forall nm, ident_name nm = true -> ftok (TIdent nm)
| FT_num : forall ds, ds <> [] -> forallb is_dig ds = true -> ftok (TNum ds)
| FT_pow : ftok TPow
| FT_lpar : ftok (TOp 40)
| FT_rpar : ftok (TOp 41).

(* what follows an identifier or a number in a printed power: nothing, ** or ')' *)
Definition closes (tail : list token) : Prop :=
  match tail with [] => True | u :: _ => u = TPow \/ u = TOp 41 end.
Definition needs_close (t : token) : bool :=
  match t with TIdent _ | TNum _ => true | _ => false end.

Lemma closes_stops : forall tail,
  closes tail -> stops is_identc (render tail) /\ stops_num (render tail).
Proof.
  intros [|u r] H; [split; exact I|].
  destruct H as [->| ->]; cbn; repeat split; (reflexivity || discriminate).
Qed.

Lemma lex_one_ftok : forall t r,
  ftok t -> (needs_close t = true -> closes r) -> lex_one (text t ++ render r) = (t, render r).
Proof.
  intros t r Ht Hs. destruct Ht as [nm Hn|ds Hne Hd| | |]; cbn [text].
  - apply lex_one_ident; [assumption|]. apply closes_stops, Hs. reflexivity.
  - apply lex_one_num; try assumption. apply closes_stops, Hs. reflexivity.
  - reflexivity.
  - cbn [app]. destruct (render r); reflexivity.
  - cbn [app]. destruct (render r); reflexivity.
Qed.

(* no white space in front of a token *)
Lemma first_byte_ws : forall t r, ftok t -> snd (span is_ws (text t ++ r)) = text t ++ r.
Proof.
  assert (Hc : forall c b, is_ws c = false -> snd (span is_ws (c :: b)) = c :: b)
    by (intros c b H; cbn [span]; rewrite H; reflexivity).
  intros t r H. destruct H as [nm Hn|ds Hne Hd| | |]; try (apply Hc; reflexivity).
  - destruct (ident_name_spec nm Hn) as [c [nm' [-> [Hch _]]]]. apply Hc.
    unfold is_char in Hch. unfold is_ws, mem, whitespace_bytes. cbn [existsb]. lia.
  - destruct ds as [|c ds']; [congruence|]. cbn [forallb] in Hd. apply andb_true_iff in Hd.
    destruct Hd as [Hd _]. apply Hc.
    unfold is_dig in Hd. unfold is_ws, mem, whitespace_bytes. cbn [existsb]. lia.
Qed.

(* the rendering of [ts] lexes back to [ts], with any fuel above its length *)
Definition lexes (ts : list token) : Prop :=
  forall f, (List.length ts < f)%nat -> lex_fuel f (render ts) = Some (ts ++ [TEnd]).

Lemma lexes_nil : lexes [].
Proof. intros [|f] Hf; [inversion Hf|reflexivity]. Qed.

Lemma lexes_cons : forall t r,
  ftok t -> (needs_close t = true -> closes r) -> lexes r -> lexes (t :: r).
Proof.
  intros t r Ht Hs Hr f Hf. destruct f as [|f]; [inversion Hf|]. cbn [render lex_fuel].
  rewrite (first_byte_ws t _ Ht), (lex_one_ftok t r Ht Hs), (Hr f) by (cbn [List.length] in Hf; lia).
  destruct Ht; reflexivity.
Qed.

Lemma digits_aux_ok : forall f n acc,
  Forall (fun d => d < 10) acc -> Forall (fun d => d < 10) (digits_aux f n acc).
Proof.
  induction f as [|f IH]; intros n acc H; cbn [digits_aux]; [exact H|].
  destruct (n <? 10) eqn:E.
  - constructor; [lia|exact H].
  - apply IH. constructor; [|exact H]. apply N.mod_lt. discriminate.
Qed.

Lemma digits_aux_nonempty : forall f n acc, (acc <> [] \/ f <> 0%nat) -> digits_aux f n acc <> [].
Proof.
  induction f as [|f IH]; intros n acc H; cbn [digits_aux].
  - destruct H as [H|H]; [exact H|congruence].
  - destruct (n <? 10); [discriminate|]. apply IH. left. discriminate.
Qed.

Lemma dec_N_digits : forall n, dec_N n <> [] /\ forallb is_dig (dec_N n) = true.
Proof.
  intros n. unfold dec_N, digits_of_N.
  set (l := digits_aux (S (N.to_nat (N.size n))) n []).
  assert (Hl : Forall (fun d => d < 10) l) by (apply digits_aux_ok; constructor).
  assert (Hne : l <> []) by (apply digits_aux_nonempty; right; discriminate).
  split.
  - destruct l; [congruence|discriminate].
  - clear Hne. induction Hl as [|d l' Hd _ IH]; [reflexivity|].
    cbn [List.map forallb]. rewrite IH. unfold is_dig.
    destruct ((48 <=? d + 48) && (d + 48 <=? 57)) eqn:E; [reflexivity|lia].
Qed.

Lemma dec_Z_nat_digits : forall n, dec_Z (Z.of_N n) <> [] /\ forallb is_dig (dec_Z (Z.of_N n)) = true.
Proof.
  intros n. destruct n as [|p]; cbn [Z.of_N dec_Z]; [split; [discriminate|reflexivity]|].
  apply dec_N_digits.
Qed.

Lemma wrap_lexes : forall e,
  (forall tail, closes tail -> lexes tail -> lexes (ptoks e ++ tail)) ->
  forall tail, closes tail -> lexes tail -> lexes (wrap e ++ tail).
Proof.
  intros e IH tail Hh Ht. unfold wrap. destruct (is_pow e); [|apply IH; assumption].
  cbn [app]. rewrite <- app_assoc.
  apply lexes_cons; [apply FT_lpar|discriminate|]. apply IH; [right; reflexivity|].
  apply lexes_cons; [apply FT_rpar|discriminate|exact Ht].
Qed.

Lemma frag_lexes : forall e, powfrag e ->
  forall tail, closes tail -> lexes tail -> lexes (ptoks e ++ tail).
Proof.
  induction 1 as [nm Hn|n|a c Ha IHa Hc IHc]; intros tail Hh Ht.
  - apply lexes_cons; [apply FT_ident; exact Hn|intros _; exact Hh|exact Ht].
  - destruct (dec_Z_nat_digits n) as [Hne Hd].
    apply lexes_cons; [apply FT_num; assumption|intros _; exact Hh|exact Ht].
  - cbn [ptoks]. fold (wrap a) (wrap c). rewrite <- app_assoc. cbn [app].
    apply (wrap_lexes a IHa); [left; reflexivity|].
    apply lexes_cons; [apply FT_pow|discriminate|]. apply (wrap_lexes c IHc); assumption.
Qed.

Lemma frag_precedence : forall e, powfrag e ->
  is_E e = false /\ is_half e = false /\ (precedence e <=? PREC_Pow) = is_pow e.
Proof.
  intros e H. destruct H as [nm _|n|a c _ _]; repeat split; try reflexivity.
  cbn [precedence num_precedence is_pow]. destruct n; reflexivity.
Qed.

Lemma frag_print : forall e, powfrag e ->
  forall f, (size e <= f)%nat -> pr_fuel f e = render (ptoks e).
Proof.
  induction 1 as [nm Hn|n|a c Ha IHa Hc IHc]; intros f Hf;
    (destruct f as [|f]; [cbn [size] in Hf; lia|]).
  - cbn [pr_fuel print_node ptoks render text]. rewrite app_nil_r. reflexivity.
  - cbn [pr_fuel print_node print_number ptoks render text]. rewrite app_nil_r. reflexivity.
  - cbn [size] in Hf. change (pr_fuel (S f) (EPow a c)) with (print_pow (pr_fuel f) a c).
    unfold print_pow, paren_le.
    destruct (frag_precedence a Ha) as [Ea [_ Pa]]. destruct (frag_precedence c Hc) as [_ [Hh Pc]].
    assert (Hsz : (size a <= f /\ size c <= f)%nat) by (clear - Hf; lia).
    rewrite Ea, Hh, Pa, Pc, (IHa f (proj1 Hsz)), (IHc f (proj2 Hsz)).
    cbn [ptoks]. fold (wrap a) (wrap c). rewrite render_app. cbn [render text].
    rewrite !render_wrap. reflexivity.
Qed.

(* no '^' in the printed string: convert_xor leaves it alone *)
Definition no94 (bs : list N) : Prop := forallb (fun c => negb (c =? 94)) bs = true.

Lemma identc_no94 : forall nm, forallb is_identc nm = true -> no94 nm.
Proof.
  unfold no94. induction nm as [|d r IH]; intros H; [reflexivity|].
  cbn [forallb] in *. apply andb_true_iff in H. destruct H as [Hd Hr]. rewrite (IH Hr).
  unfold is_identc, is_char, is_dig in Hd. destruct (d =? 94) eqn:E; [lia|reflexivity].
Qed.

Lemma frag_no94 : forall e, powfrag e -> no94 (render (ptoks e)).
Proof.
  assert (Hw : forall e, no94 (render (ptoks e)) -> no94 (render (wrap e))).
  { intros e H. rewrite render_wrap. destruct (is_pow e); [|exact H].
    unfold no94, parens. rewrite !forallb_app, H. reflexivity. }
  induction 1 as [nm Hn|n|a c Ha IHa Hc IHc]; cbn [ptoks render text].
  - rewrite app_nil_r. apply identc_no94.
    destruct (ident_name_spec nm Hn) as [c [r [_ [_ [Hall _]]]]]. exact Hall.
  - rewrite app_nil_r. apply identc_no94. destruct (dec_Z_nat_digits n) as [_ Hd].
    rewrite forallb_forall in *. intros x Hx. unfold is_identc. rewrite (Hd x Hx). apply orb_true_r.
  - fold (wrap a) (wrap c). rewrite render_app. cbn [render text]. unfold no94 in *.
    rewrite !forallb_app, (Hw a IHa), (Hw c IHc). reflexivity.
Qed.

Lemma convert_xor_id : forall conv bs, no94 bs -> convert_xor conv bs = bs.
Proof.
  intros conv bs H. unfold convert_xor. destruct conv; [|reflexivity].
  induction bs as [|c r IH]; [reflexivity|].
  cbn [forallb] in H. apply andb_true_iff in H. destruct H as [Hc Hr].
  cbn [List.map]. rewrite (IH Hr). destruct (c =? 94); [discriminate|reflexivity].
Qed.

(* C16 parse_print, partial: the fragment of nested powers *)
Theorem parse_print_powers : forall e conv, powfrag e -> parse_syntax (print e) conv = TopOk (syn e).
Proof.
  intros e conv H. unfold parse_syntax, print.
  rewrite (frag_print e H (size e)), (convert_xor_id conv _ (frag_no94 e H)) by lia.
  pose proof (frag_lexes e H [] I lexes_nil) as Hl. rewrite app_nil_r in Hl.
  rewrite (lex_fuel_stable _ _ _ (Hl _ (Nat.lt_succ_diag_r _))). apply frag_parse_tokens. exact H.
Qed.
