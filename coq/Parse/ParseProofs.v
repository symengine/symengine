(* C17 / C18 -- what the other proofs about the reference parser rest on:
     - the precedence table read from parser.yy is the conventional one (prec_conv, unary levels),
       and through it where the operator loop goes on and where it stops
     - parse_tokens_total: the parser never runs out of fuel (fuel = number of tokens + 1). *)
From SE Require Import Parse.ParseSpec.
From Coq Require Import Lia ZifyBool ZifyN.
Local Open Scope N_scope.

Lemma prec_conv : forall op, prec_of (tk_of_binop op) = Some (conv_level op, conv_assoc op).
Proof. destruct op; vm_compute; reflexivity. Qed.

Lemma lvl_uminus : lvl K_UMINUS = LEVEL_UMINUS. Proof. vm_compute. reflexivity. Qed.
Lemma lvl_uplus : lvl K_UPLUS = LEVEL_UPLUS. Proof. vm_compute. reflexivity. Qed.
Lemma lvl_pow : lvl K_POW = LEVEL_POW. Proof. vm_compute. reflexivity. Qed.
Lemma lvl_not : lvl K_NOT = LEVEL_NOT. Proof. vm_compute. reflexivity. Qed.

(* a property of the levels that passes from k + 1 to k below 11 passes from any level up to 11 to
   every lower one *)
Lemma level_down : forall P : N -> Prop, (forall k, k < 11 -> P (k + 1) -> P k) ->
  forall k k', k <= k' -> k' <= 11 -> P k' -> P k.
Proof.
  intros P Hup k k' H1 H2 H.
  remember (N.to_nat (k' - k)) as d eqn:Hd. revert k H1 Hd.
  induction d as [|d IH]; intros k H1 Hd.
  - replace k with k' by lia. exact H.
  - apply Hup; [lia|]. apply IH; lia.
Qed.

Lemma binop_token : forall t op, binop_of_token t = Some op -> t = token_of_binop op.
Proof.
  intros t op H. destruct t; try discriminate H; try (injection H as <-; reflexivity).
  cbn [binop_of_token] in H.
  destruct (N.eqb_spec c 124) as [->|_]; [injection H as <-; reflexivity|].
  destruct (N.eqb_spec c 94) as [->|_]; [injection H as <-; reflexivity|].
  destruct (N.eqb_spec c 38) as [->|_]; [injection H as <-; reflexivity|].
  destruct (N.eqb_spec c 62) as [->|_]; [injection H as <-; reflexivity|].
  destruct (N.eqb_spec c 60) as [->|_]; [injection H as <-; reflexivity|].
  destruct (N.eqb_spec c 43) as [->|_]; [injection H as <-; reflexivity|].
  destruct (N.eqb_spec c 45) as [->|_]; [injection H as <-; reflexivity|].
  destruct (N.eqb_spec c 42) as [->|_]; [injection H as <-; reflexivity|].
  destruct (N.eqb_spec c 47) as [->|_]; [injection H as <-; reflexivity|discriminate H].
Qed.

Lemma binop_of_token_of : forall op, binop_of_token (token_of_binop op) = Some op.
Proof. destruct op; reflexivity. Qed.

(* the minimal precedence [next_binop] hands to the right operand: one above the operator's level
   for the left-associative ones, the level itself (13) for ** *)
Definition rhs_level (op : binop) : N :=
  match op with BPow => 13 | _ => conv_level op + 1 end.

Lemma rhs_level_low : forall op, conv_level op <= 10 -> rhs_level op = conv_level op + 1.
Proof. intros op H. destruct op; try reflexivity. simpl in H. lia. Qed.

Lemma next_binop_some : forall minp ts op rp r,
  next_binop minp ts = Some (op, rp, r) ->
  ts = token_of_binop op :: r /\ minp <= conv_level op /\ rp = rhs_level op.
Proof.
  intros minp ts op rp r H. unfold next_binop in H.
  destruct ts as [|t r0]; [discriminate|].
  destruct (binop_of_token t) as [op0|] eqn:Hb; [|discriminate].
  rewrite prec_conv in H.
  destruct (minp <=? conv_level op0) eqn:Hle; [|discriminate].
  inversion H; subst. apply binop_token in Hb. subst.
  split; [reflexivity|]. split; [lia|]. destruct op; reflexivity.
Qed.

Lemma next_binop_tok : forall minp op r,
  next_binop minp (token_of_binop op :: r) =
  if minp <=? conv_level op then Some (op, rhs_level op, r) else None.
Proof.
  intros minp op r. unfold next_binop. rewrite binop_of_token_of, prec_conv.
  destruct (minp <=? conv_level op); [destruct op|]; reflexivity.
Qed.

Lemma next_binop_none_cons : forall minp op r,
  next_binop minp (token_of_binop op :: r) = None -> conv_level op < minp.
Proof.
  intros minp op r H. rewrite next_binop_tok in H.
  destruct (minp <=? conv_level op) eqn:Hle; [discriminate|lia].
Qed.

(* the loop stops exactly in front of a token that is not an operator of level >= minp *)
Lemma next_binop_none : forall minp ts,
  next_binop minp ts = None <-> forall op r, ts = token_of_binop op :: r -> conv_level op < minp.
Proof.
  intros minp ts. split.
  - intros H op r ->. exact (next_binop_none_cons _ _ _ H).
  - intros H. destruct (next_binop minp ts) as [[[op rp] r]|] eqn:E; [|reflexivity].
    apply next_binop_some in E. destruct E as [E [Hle _]]. specialize (H op r E). lia.
Qed.

Lemma next_binop_mono : forall a c ts, a <= c -> next_binop a ts = None -> next_binop c ts = None.
Proof.
  intros a c ts Hac H. apply next_binop_none. intros op r E.
  apply (proj1 (next_binop_none a ts) H) in E. lia.
Qed.

(* no binary operator has level 11, 12 or >= 14 *)
Lemma level_range : forall op, conv_level op <= 10 \/ conv_level op = 13.
Proof. destruct op; (left; discriminate) || (right; reflexivity). Qed.

(* hence the levels 11..13 stop in front of the same tokens *)
Lemma next_binop_unary : forall p q ts,
  11 <= p -> q <= 13 -> next_binop q ts = None -> next_binop p ts = None.
Proof.
  intros p q ts Hp Hq H. apply next_binop_none. intros op r E.
  apply (proj1 (next_binop_none q ts) H) in E. destruct (level_range op); lia.
Qed.

Lemma after_op_eq : forall c ts r, after_op c ts = Some r -> ts = TOp c :: r.
Proof.
  intros c ts r H. destruct ts as [|t r0]; simpl in H; [discriminate|].
  destruct t; simpl in H; try discriminate.
  destruct (N.eqb_spec c0 c); inversion H; subst. reflexivity.
Qed.

Lemma after_pow_eq : forall ts r, after_pow ts = Some r -> ts = TPow :: r.
Proof.
  intros ts r H. destruct ts as [|t r0]; simpl in H; [discriminate|].
  destruct t; inversion H; subst. reflexivity.
Qed.

Lemma after_op_len : forall c ts r, after_op c ts = Some r -> List.length ts = S (List.length r).
Proof. intros c ts r H. apply after_op_eq in H. subst. reflexivity. Qed.

Lemma after_pow_len : forall ts r, after_pow ts = Some r -> List.length ts = S (List.length r).
Proof. intros ts r H. apply after_pow_eq in H. subst. reflexivity. Qed.

Lemma next_binop_len : forall minp ts op rp r,
  next_binop minp ts = Some (op, rp, r) -> List.length ts = S (List.length r).
Proof.
  intros. apply next_binop_some in H. destruct H as [H _]. subst. reflexivity.
Qed.

Lemma err_of_fuel : forall A B (e : res A), @err_of A B e = ErrFuel -> e = ErrFuel.
Proof. intros A B e H. destruct e; simpl in H; try discriminate. reflexivity. Qed.

Lemma err_of_not_ok : forall A B (e : res A) x, @err_of A B e <> Ok x.
Proof. intros A B e x. destruct e; simpl; discriminate. Qed.

(* The shape of every call of a sub-parser in ParseModel.v, [match a with Ok x => k x | e => err_of e end]:
   go on with a result, turn a failure into a syntax error, stay out of fuel.  The model has the match
   written out, so lemmas about on_ok are used with [refine]: the unifier of [apply] does not unfold
   on_ok against it. *)
Definition on_ok {A B} (a : res A) (k : A -> res B) : res B :=
  match a with
  | Ok x => k x
  | ErrOOB i l => err_of (ErrOOB i l : res A)
  | ErrFuel => err_of (ErrFuel : res A)
  | ErrExn c => err_of (ErrExn c : res A)
  end.

(* a chain of calls gives a result only if the sub-parser did and the continuation does *)
Lemma on_ok_ok : forall A B (a : res A) (k : A -> res B) y,
  on_ok a k = Ok y -> exists x, a = Ok x /\ k x = Ok y.
Proof.
  intros A B a k y H.
  destruct a as [x| | |]; [exists x; split; [reflexivity|exact H]|..];
    exfalso; exact (err_of_not_ok _ _ _ _ H).
Qed.
Arguments on_ok_ok {A B a k y}.

Lemma pexpr_S : forall f minp ts,
  pexpr (S f) minp ts = on_ok (primary (pexpr f) ts) (fun '(l, r) => ploop (pexpr f) (List.length r) minp l r).
Proof. reflexivity. Qed.

(* in front of a token that is no operator of level >= minp the loop returns, whatever its counter *)
Lemma ploop_none : forall rec n minp left ts,
  next_binop minp ts = None -> ploop rec n minp left ts = Ok (left, ts).
Proof. intros rec n minp left ts H. destruct n; cbn [ploop]; rewrite H; reflexivity. Qed.

(* [r] is not "out of fuel", and if it is a result, what it leaves is shorter than [m] *)
Definition good {A} (m : nat) (r : res (A * list token)) : Prop :=
  r <> ErrFuel /\ forall x r', r = Ok (x, r') -> (List.length r' < m)%nat.

Lemma good_ok : forall A m (x : A) r, (List.length r < m)%nat -> good m (Ok (x, r)).
Proof. intros A m x r H. split; [discriminate|]. intros x' r' E. inversion E; subst. exact H. Qed.

Lemma good_err : forall A m, good m (@syntax_error (A * list token)).
Proof. intros A m. split; discriminate. Qed.

Lemma good_weaken : forall A m m' (r : res (A * list token)), (m <= m')%nat -> good m r -> good m' r.
Proof. intros A m m' r Hm [Hf Hl]. split; [exact Hf|]. intros x r' E. specialize (Hl x r' E). lia. Qed.

Lemma good_on_ok : forall A B m m' (a : res (A * list token)) (k : A * list token -> res (B * list token)),
  good m a -> (forall x r, (List.length r < m)%nat -> good m' (k (x, r))) -> good m' (on_ok a k).
Proof.
  intros A B m m' a k [Hf Hl] Hk.
  destruct a as [[x r]| | |]; [apply Hk, (Hl x r eq_refl)|apply good_err|congruence|apply good_err].
Qed.
Arguments good_on_ok {A B m m' a k}.

(* the hypothesis on the recursive parser: on inputs shorter than L it does not run out of fuel
   and consumes at least one token *)
Definition good_rec (rec : N -> list token -> presult) (L : nat) : Prop :=
  forall p ts, (List.length ts < L)%nat -> good (List.length ts) (rec p ts).

Section Total.
  Variable rec : N -> list token -> presult.
  Variable L : nat.
  Hypothesis Hrec : good_rec rec L.

  Lemma pargs_total : forall n ts, (List.length ts < L)%nat -> (List.length ts < n)%nat ->
    good (List.length ts) (pargs rec n ts).
  Proof.
    induction n as [|n IH]; intros ts HL Hn; [lia|]. cbn [pargs].
    refine (good_on_ok (Hrec 0 ts HL) _). intros a r Hr.
    destruct (after_op 44 r) as [r1|] eqn:E1.
    - apply after_op_len in E1.
      refine (good_on_ok (IH r1 _ _) _); [lia|lia|]. intros l r' Hr'. apply good_ok. lia.
    - destruct (after_op 41 r) as [r1|] eqn:E2; [|apply good_err].
      apply after_op_len in E2. apply good_ok. lia.
  Qed.

  Lemma pepair_total : forall ts, (List.length ts <= L)%nat -> good (List.length ts) (pepair rec ts).
  Proof.
    intros ts HL. unfold pepair.
    destruct (after_op 40 ts) as [r|] eqn:E0; [|apply good_err]. apply after_op_len in E0.
    refine (good_on_ok (Hrec 0 r _) _); [lia|]. intros e r1 Hr1.
    destruct (after_op 44 r1) as [r2|] eqn:E1; [|apply good_err]. apply after_op_len in E1.
    refine (good_on_ok (Hrec 0 r2 _) _); [lia|]. intros c r3 Hr3.
    destruct (after_op 41 r3) as [r4|] eqn:E3; [|apply good_err]. apply after_op_len in E3.
    apply good_ok. lia.
  Qed.

  Lemma ppairs_total : forall n ts, (List.length ts <= L)%nat -> (List.length ts < n)%nat ->
    good (List.length ts) (ppairs rec n ts).
  Proof.
    induction n as [|n IH]; intros ts HL Hn; [lia|]. cbn [ppairs].
    refine (good_on_ok (pepair_total ts HL) _). intros p r Hr.
    destruct (after_op 44 r) as [r1|] eqn:E1.
    - apply after_op_len in E1.
      refine (good_on_ok (IH r1 _ _) _); [lia|lia|]. intros l r' Hr'. apply good_ok. lia.
    - destruct (after_op 41 r) as [r1|] eqn:E2; [|apply good_err].
      apply after_op_len in E2. apply good_ok. lia.
  Qed.

  (* a prefix operator: one recursive call on the tokens after it *)
  Lemma prefix_total : forall p r m (k : past -> past), (List.length r < L)%nat -> (List.length r < m)%nat ->
    good m (on_ok (rec p r) (fun '(a, r') => Ok (k a, r'))).
  Proof.
    intros p r m k HL Hm. refine (good_on_ok (Hrec p r HL) _). intros a r' Hr'. apply good_ok. lia.
  Qed.

  Lemma primary_total : forall ts, (List.length ts <= L)%nat -> good (List.length ts) (primary rec ts).
  Proof using Hrec.
    intros ts HL. unfold primary.
    destruct ts as [|t0 r]; [apply good_err|]. cbn [List.length] in *.
    destruct t0; try apply good_err.
    - destruct (c =? 45); [apply (prefix_total _ _ _ PNeg); lia|].
      destruct (c =? 43); [apply (prefix_total _ _ _ (fun a => a)); lia|].
      destruct (c =? 126); [apply (prefix_total _ _ _ PNot); lia|].
      destruct (c =? 40); [|apply good_err].
      refine (good_on_ok (Hrec 0 r _) _); [lia|]. intros a r1 Hr1.
      destruct (after_op 41 r1) as [r'|] eqn:E1; [|apply good_err].
      apply after_op_len in E1. apply good_ok. lia.
    - destruct (after_op 40 r) as [r1|] eqn:E0; [|apply good_err]. apply after_op_len in E0.
      refine (good_on_ok (ppairs_total (S (List.length r1)) r1 _ _) _); [lia|lia|].
      intros l r' Hr'. apply good_ok. lia.
    - destruct (after_op 40 r) as [r1|] eqn:E0; [|apply good_ok; lia]. apply after_op_len in E0.
      refine (good_on_ok (pargs_total (S (List.length r1)) r1 _ _) _); [lia|lia|].
      intros l r' Hr'. apply good_ok. lia.
    - apply good_ok. lia.
    - destruct (after_pow r) as [r1|] eqn:E0; [|apply good_ok; lia]. apply after_pow_len in E0.
      apply (prefix_total _ _ _ (PImplPow s)); lia.
  Qed.

  Lemma ploop_total : forall n minp left ts,
    (List.length ts <= L)%nat -> (List.length ts <= n)%nat ->
    good (S (List.length ts)) (ploop rec n minp left ts).
  Proof using Hrec.
    induction n as [|n IH]; intros minp left ts HL Hn.
    - destruct ts; [|simpl in Hn; lia]. apply good_ok. apply le_n.
    - cbn [ploop]. destruct (next_binop minp ts) as [[[op rp] r]|] eqn:E; [|apply good_ok; lia].
      apply next_binop_len in E.
      refine (good_on_ok (Hrec rp r _) _); [lia|]. intros c r' Hr'.
      apply (good_weaken _ (S (List.length r'))); [lia|]. apply IH; lia.
  Qed.
End Total.

Theorem pexpr_total : forall f, good_rec (pexpr f) f.
Proof.
  induction f as [|f IH]; intros p ts Hlen; [lia|]. rewrite pexpr_S.
  refine (good_on_ok (primary_total (pexpr f) f IH ts _) _); [lia|]. intros l r Hr.
  apply (good_weaken _ (S (List.length r))); [lia|]. apply (ploop_total (pexpr f) f IH); lia.
Qed.

(* parse_tokens, by the two outcomes the theorems speak of: accepted, out of fuel *)
Lemma parse_tokens_ok : forall ts t,
  parse_tokens ts = TopOk t <-> pexpr (S (List.length ts)) 0 ts = Ok (t, [TEnd]).
Proof.
  intros ts t. unfold parse_tokens.
  destruct (pexpr (S (List.length ts)) 0 ts) as [[t' r]| | |]; [|split; discriminate..].
  destruct r as [|t0 r0]; [split; discriminate|].
  destruct t0; try (split; discriminate). destruct r0; [|split; discriminate].
  split; intros H; inversion H; reflexivity.
Qed.

Lemma parse_tokens_fuel : forall ts,
  parse_tokens ts = TopFuel -> pexpr (S (List.length ts)) 0 ts = ErrFuel.
Proof.
  intros ts. unfold parse_tokens.
  destruct (pexpr (S (List.length ts)) 0 ts) as [[t r]| | |]; try discriminate; [|reflexivity].
  destruct r as [|t0 r0]; [discriminate|]. destruct t0; try discriminate. destruct r0; discriminate.
Qed.

(* C18: the reference parser is total on every token list: the fuel (number of tokens + 1) is
   never exhausted *)
Theorem parse_tokens_total : forall ts, parse_tokens ts <> TopFuel.
Proof.
  intros ts H. apply parse_tokens_fuel in H.
  destruct (pexpr_total (S (List.length ts)) 0 ts) as [Hnf _]; [lia|]. exact (Hnf H).
Qed.
