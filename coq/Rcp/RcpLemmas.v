(* C40 -- list and counting lemmas for the reference-counting proofs. *)
From Coq Require Import List Arith Bool Lia.
From SE Require Import Rcp.RcpModel Rcp.RcpSpec.
Import ListNotations.

Lemma upd_length : forall A (l : list A) n x, length (upd l n x) = length l.
Proof. induction l; destruct n; simpl; intros; auto. Qed.

Lemma nth_upd_eq : forall A (l : list A) n x, n < length l -> nth_error (upd l n x) n = Some x.
Proof. induction l; destruct n; simpl; intros; try lia; auto. apply IHl. lia. Qed.

Lemma nth_upd_neq : forall A (l : list A) n m x, n <> m -> nth_error (upd l n x) m = nth_error l m.
Proof.
  induction l; destruct n; destruct m; simpl; intros; try congruence; auto.
Qed.

Lemma nth_some_lt : forall A (l : list A) n a, nth_error l n = Some a -> n < length l.
Proof. intros. apply nth_error_Some. congruence. Qed.

Lemma upd_cases : forall A (l : list A) n a m b,
  nth_error (upd l n a) m = Some b -> b = a \/ nth_error l m = Some b.
Proof.
  intros A l n a m b H. destruct (Nat.eq_dec n m) as [->|N].
  - left. pose proof (nth_some_lt _ _ _ _ H) as Hlt. rewrite upd_length in Hlt.
    rewrite nth_upd_eq in H by auto. congruence.
  - right. rewrite nth_upd_neq in H by auto. auto.
Qed.

Lemma Forall_upd : forall A (P : A -> Prop) l i x, Forall P l -> P x -> Forall P (upd l i x).
Proof.
  induction l; destruct i; simpl; intros; auto.
  - inversion H; subst. constructor; auto.
  - inversion H; subst. constructor; auto.
Qed.

Lemma sum_upd : forall A (f : A -> nat) l n a b, nth_error l n = Some a ->
  list_sum (map f (upd l n b)) + f a = list_sum (map f l) + f b.
Proof.
  induction l; destruct n; simpl; intros; try discriminate.
  - inversion H; subst. lia.
  - specialize (IHl _ _ b H). lia.
Qed.

Lemma map_upd_same : forall A B (f : A -> B) l n a b, nth_error l n = Some a -> f b = f a ->
  map f (upd l n b) = map f l.
Proof.
  induction l; destruct n; simpl; intros; try discriminate; auto.
  - inversion H; subst. congruence.
  - f_equal. eauto.
Qed.

Lemma sum_app1 : forall A (f : A -> nat) l a, list_sum (map f (l ++ [a])) = list_sum (map f l) + f a.
Proof. intros. rewrite map_app, list_sum_app. simpl. lia. Qed.

Lemma nth_app_new : forall A (l : list A) a, nth_error (l ++ [a]) (length l) = Some a.
Proof. intros. rewrite nth_error_app2 by lia. rewrite Nat.sub_diag. reflexivity. Qed.

Lemma nth_app_cases : forall A (l : list A) a n x, nth_error (l ++ [a]) n = Some x ->
  (n < length l /\ nth_error l n = Some x) \/ (n = length l /\ x = a).
Proof.
  intros. destruct (lt_dec n (length l)).
  - left. rewrite nth_error_app1 in H by auto. auto.
  - right. rewrite nth_error_app2 in H by lia.
    destruct (n - length l) eqn:E; simpl in H.
    + inversion H. split; [lia | auto].
    + destruct n1; discriminate.
Qed.

Lemma nth_skipn : forall A n (l : list A) i, nth_error (skipn n l) i = nth_error l (n + i).
Proof. induction n; destruct l; simpl; intros; auto; destruct i; auto. Qed.

Lemma sum_zero : forall A (f : A -> nat) l, (forall a, In a l -> f a = 0) -> list_sum (map f l) = 0.
Proof.
  induction l; simpl; intros; auto.
  assert (E1 : f a = 0) by (apply H; auto).
  assert (E2 : list_sum (map f l) = 0) by (apply IHl; intros; apply H; auto).
  lia.
Qed.

Lemma sum_ge : forall A (f : A -> nat) l n a, nth_error l n = Some a -> f a <= list_sum (map f l).
Proof.
  induction l; destruct n; simpl; intros; try discriminate.
  - inversion H; subst. lia.
  - specialize (IHl _ _ H). lia.
Qed.

Lemma sum_pos : forall A (f : A -> nat) l, 1 <= list_sum (map f l) ->
  exists n a, nth_error l n = Some a /\ 1 <= f a.
Proof.
  induction l as [|a l IH]; simpl; intros H; [lia|].
  destruct (le_lt_dec 1 (f a)); [exists 0, a; auto|].
  destruct IH as (n & b & Hn & Hb); [lia|]. exists (S n), b. auto.
Qed.

Lemma occ_cons : forall id w x, occ (id :: w) x = socc x (Some id) + occ w x.
Proof. intros. simpl. destruct (Nat.eq_dec id x); lia. Qed.

Definition olist (o : option nat) : list nat := match o with Some x => [x] | None => [] end.

Lemma occ_olist0 : forall o x, occ (olist o) x = socc x o.
Proof. intros. destruct o; simpl; auto. Qed.

Lemma occ_olist : forall o w x, occ (olist o ++ w) x = socc x o + occ w x.
Proof. intros. rewrite count_occ_app, occ_olist0. auto. Qed.

Lemma slot_refs_ge : forall s i id, nth_error s i = Some (Some id) -> 1 <= slot_refs s id.
Proof.
  intros. unfold slot_refs. pose proof (sum_ge _ (socc id) _ _ _ H).
  simpl in H0. destruct (Nat.eq_dec id id); try congruence; try lia.
Qed.

Lemma slot_refs_pos : forall s id, 1 <= slot_refs s id -> exists i, nth_error s i = Some (Some id).
Proof.
  intros s id H. destruct (sum_pos _ (socc id) s H) as (i & [j|] & Hi & Hp); simpl in Hp; [|lia].
  destruct (Nat.eq_dec j id) as [->|]; [eauto | lia].
Qed.

Lemma kid_refs_ge : forall h p rc e k c, nth_error h p = Some (Live rc e k) -> In c k -> 1 <= kid_refs h c.
Proof.
  intros. unfold kid_refs. pose proof (sum_ge _ (cocc c) _ _ _ H). simpl in H1.
  assert (occ k c > 0) by (apply count_occ_In; auto). lia.
Qed.

Lemma kid_refs_pos : forall h id, 1 <= kid_refs h id ->
  exists p rc e k, nth_error h p = Some (Live rc e k) /\ In id k.
Proof.
  intros h id H. destruct (sum_pos _ (cocc id) h H) as (p & [rc e k|] & Hp & Hc); simpl in Hc; [|lia].
  exists p, rc, e, k. split; auto. apply (count_occ_In Nat.eq_dec). lia.
Qed.

Lemma slot_refs_zero : forall s id, (forall i, nth_error s i <> Some (Some id)) -> slot_refs s id = 0.
Proof.
  intros s id H. destruct (le_lt_dec 1 (slot_refs s id)) as [Hp|]; [|lia].
  destruct (slot_refs_pos _ _ Hp) as [i Hi]. destruct (H i Hi).
Qed.

Lemma kid_refs_zero : forall h id,
  (forall p rc e k, nth_error h p = Some (Live rc e k) -> ~ In id k) -> kid_refs h id = 0.
Proof.
  intros h id H. destruct (le_lt_dec 1 (kid_refs h id)) as [Hp|]; [|lia].
  destruct (kid_refs_pos _ _ Hp) as (p & rc & e & k & Hn & Hin). destruct (H _ _ _ _ Hn Hin).
Qed.

Lemma kid_refs_upd : forall h n a b id, nth_error h n = Some a ->
  kid_refs (upd h n b) id + cocc id a = kid_refs h id + cocc id b.
Proof. intros. unfold kid_refs. apply sum_upd. auto. Qed.

Lemma kid_refs_app : forall h c id, kid_refs (h ++ [c]) id = kid_refs h id + cocc id c.
Proof. intros. unfold kid_refs. apply sum_app1. Qed.

Lemma slot_refs_upd : forall s i a b id, nth_error s i = Some a ->
  slot_refs (upd s i b) id + socc id a = slot_refs s id + socc id b.
Proof. intros. unfold slot_refs. apply sum_upd. auto. Qed.

Lemma total_rc_upd : forall h n a b, nth_error h n = Some a ->
  total_rc (upd h n b) + cell_rc a = total_rc h + cell_rc b.
Proof. intros. unfold total_rc. apply sum_upd. auto. Qed.

Lemma live_at_upd_neq : forall h n c x, n <> x -> (live_at (upd h n c) x <-> live_at h x).
Proof. intros. unfold live_at. rewrite nth_upd_neq by auto. tauto. Qed.

Lemma live_at_lt : forall h x, live_at h x -> x < length h.
Proof. intros h x (rc & e & k & H). eapply nth_some_lt; eauto. Qed.

Lemma kids_of_live : forall h x k, kids_of h x = Some k <-> exists rc e, nth_error h x = Some (Live rc e k).
Proof.
  intros. unfold kids_of. destruct (nth_error h x) as [[rc e k'|]|]; split; intros H;
    try discriminate; try (destruct H as (? & ? & H); discriminate).
  - inversion H; subst. eauto.
  - destruct H as (? & ? & H). inversion H; subst. auto.
Qed.
