(* C41 -- proofs about the interleaving model: with the atomic fields of the thread-safe build
   every schedule returns the right hash, never touches a deleted object and deletes exactly
   once; with plain fields (or a hash written in two halves) there are failing schedules. *)
From Coq Require Import List Arith Bool NArith Lia.
From SE Require Import Rcp.RcpModel Rcp.RcpLemmas Rcp.ThreadModel.
Import ListNotations.

Arguments is_mf !t /.

(* what holds of a thread when the cache is [c]: all it returned is [H]; inside hash() it holds a
   handle, and the cache is [H] once it saw a nonzero value or stored; the intermediate points
   of the plain (non-atomic) fields are never entered in the thread-safe build *)
Definition thread_ok (H c : N) (t : tstate) : Prop :=
  Forall (fun r => r = H) (rets t) /\
  match tpc t with
  | Idle => True
  | HashChecked v => 1 <= held t /\ (v <> 0%N -> c = H)
  | HashStored => 1 <= held t /\ c = H
  | MustFree => True
  | HashStoring => False
  | NaInc _ => False
  | NaDec _ => False
  end.

(* the counter is the number of handles held by all threads; while there is one, nobody has
   deleted or is about to; once there is none, exactly one thread has deleted or is about to *)
Record tinv (H : N) (s : sstate) : Prop := mkTinv {
  ti_cache : cache s = 0%N \/ cache s = H;
  ti_threads : Forall (thread_ok H (cache s)) (threads s);
  ti_rc : rc s = total_held s;
  ti_uaf : uaf s = false;
  ti_live : 1 <= total_held s -> freed s = 0 /\ must_free s = 0;
  ti_dead : total_held s = 0 -> freed s + must_free s = 1
}.

Lemma thread_ok_store : forall H c t, thread_ok H c t -> thread_ok H H t.
Proof.
  intros H c [p h rs] [R K]. split; auto. simpl in *. destruct p; auto.
  - destruct K. split; auto.
  - destruct K. split; auto.
Qed.

(* the state after an atomic step of thread [i] that found the object not yet deleted: the
   thread becomes [t'], the fields [c'], [rc'], [fr'] *)
Lemma tinv_set : forall H s i t t' c' rc' fr',
  tinv H s -> nth_error (threads s) i = Some t -> freed s = 0 ->
  (c' = cache s \/ c' = H) -> thread_ok H c' t' ->
  rc' + held t = rc s + held t' ->
  (forall m', m' + is_mf t = must_free s + is_mf t' ->
     (1 <= rc' -> fr' = 0 /\ m' = 0) /\ (rc' = 0 -> fr' + m' = 1)) ->
  tinv H (mkS c' rc' fr' (touch s) (upd (threads s) i t')).
Proof.
  intros H s i t t' c' rc' fr' [IC IT IR IU IL ID] Ht F0 Hc OK Hrc Hm.
  pose proof (sum_upd _ held _ _ _ t' Ht) as E1.
  pose proof (sum_upd _ is_mf _ _ _ t' Ht) as E2.
  unfold total_held, must_free in *.
  assert (R : rc' = list_sum (map held (upd (threads s) i t'))) by lia.
  specialize (Hm _ E2). rewrite R in Hm.
  constructor; simpl; unfold total_held, must_free; simpl.
  - destruct Hc as [->| ->]; auto.
  - apply Forall_upd; auto. destruct Hc as [->| ->]; auto.
    rewrite Forall_forall in *. intros x Hx. eapply thread_ok_store; eauto.
  - exact R.
  - unfold touch. rewrite IU, F0. reflexivity.
  - apply Hm.
  - apply Hm.
Qed.

(* the steps of hash(): taken by a thread that holds a handle, they change neither the counter
   nor who holds or deletes what *)
Lemma tinv_set_hash : forall H s i t t' c',
  tinv H s -> nth_error (threads s) i = Some t -> 1 <= held t ->
  (c' = cache s \/ c' = H) -> thread_ok H c' t' ->
  held t' = held t -> is_mf t = 0 -> is_mf t' = 0 ->
  tinv H (mkS c' (rc s) (freed s) (touch s) (upd (threads s) i t')).
Proof.
  intros H s i t t' c' I Ht Hh Hc OK Eh M M'.
  pose proof (sum_ge _ held _ _ _ Ht) as Hle. fold (total_held s) in Hle.
  destruct (ti_live _ _ I) as [F0 M0]; [lia|].
  apply (tinv_set H s i t); try assumption.
  - rewrite Eh. reflexivity.
  - intros m' Hm. rewrite (ti_rc _ _ I). lia.
Qed.

Lemma tstep_inv : forall H s i r, tinv H s -> tinv H (tstep thread_safe H s i r).
Proof.
  intros H s i r I. unfold tstep.
  destruct (nth_error (threads s) i) as [t|] eqn:Ht; auto.
  pose proof I as [IC IT IR IU IL ID].
  assert (OK : thread_ok H (cache s) t).
  { rewrite Forall_forall in IT. apply IT. eapply nth_error_In; eauto. }
  pose proof (sum_ge _ held _ _ _ Ht) as Hle. fold (total_held s) in Hle.
  pose proof (sum_ge _ is_mf _ _ _ Ht) as Hmf. fold (must_free s) in Hmf.
  (* a thread that holds a handle finds the object neither deleted nor about to be *)
  assert (LIVE : 1 <= held t -> freed s = 0 /\ must_free s = 0) by (intros; apply IL; lia).
  destruct t as [p h rs]. destruct OK as [RS K]. simpl in *.
  destruct p as [|saw| | | |seen|seen]; simpl in *.
  - (* Idle: the first atomic step of the requested operation *)
    destruct h as [|h']; [exact I|]. destruct LIVE as [F0 M0]; [lia|].
    destruct r; simpl.
    + (* hash: load *)
      apply (tinv_set_hash H s i _ _ _ I Ht); simpl; auto; try lia.
      split; auto. simpl. split; [lia|]. intros. destruct IC; congruence.
    + (* copy: fetch_add *)
      apply (tinv_set H s i _ _ _ _ _ I Ht); simpl; auto; try lia.
      split; simpl; auto.
    + (* drop: fetch_sub; the thread that takes the counter to zero deletes *)
      apply (tinv_set H s i _ _ _ _ _ I Ht); simpl; auto; try lia.
      * split; [exact RS|]. simpl. destruct (rc s) as [|[|n]]; simpl; auto.
      * destruct (rc s) as [|[|n]]; simpl; intros; lia.
  - (* HashChecked: after the load of the cache *)
    destruct K as [K1 K2].
    destruct (saw =? 0)%N eqn:Ez; simpl; apply (tinv_set_hash H s i _ _ _ I Ht); simpl; auto.
    + (* store of the idempotent value *)
      split; simpl; auto.
    + (* the cache was set: return it *)
      apply N.eqb_neq in Ez. specialize (K2 Ez). split; simpl; auto.
  - destruct K.
  - (* HashStored: return the cache *)
    destruct K as [K1 K2].
    apply (tinv_set_hash H s i _ _ _ I Ht); simpl; auto. split; simpl; auto.
  - (* MustFree: delete; no handle is left, and this thread has the only claim *)
    assert (TH : total_held s = 0) by (destruct (total_held s); auto; destruct IL; lia).
    specialize (ID TH).
    apply (tinv_set H s i _ _ _ _ _ I Ht); simpl; auto; try lia. split; simpl; auto.
  - destruct K.
  - destruct K.
Qed.

Lemma trun_inv : forall H sched s, tinv H s -> tinv H (trun thread_safe H s sched).
Proof.
  induction sched as [|[i r] q IH]; simpl; intros; auto. apply IH. apply tstep_inv. auto.
Qed.

Lemma tinit_inv : forall H c0 helds, (c0 = 0%N \/ c0 = H) -> 1 <= list_sum helds ->
  tinv H (tinit c0 helds).
Proof.
  intros H c0 helds Hc Hs. unfold tinit.
  assert (E : map held (map (fun h => mkT Idle h []) helds) = helds).
  { rewrite map_map. simpl. apply map_id. }
  assert (M : list_sum (map is_mf (map (fun h => mkT Idle h []) helds)) = 0).
  { apply sum_zero. intros a Ha. apply in_map_iff in Ha. destruct Ha as (h & <- & _). reflexivity. }
  constructor; simpl; auto; unfold total_held, must_free; simpl; try rewrite E; auto.
  - rewrite Forall_forall. intros t Ht. apply in_map_iff in Ht. destruct Ht as (h & <- & _).
    split; simpl; auto.
  - intros. lia.
Qed.

(* C41 hash_cache_linearizable: in every interleaving of any number of threads every hash() call
   returns __hash__() (what the sequential run returns), and the cache ends as 0 or __hash__() *)
Theorem hash_cache_linearizable : forall H c0 helds sched,
  (c0 = 0%N \/ c0 = H) -> 1 <= list_sum helds ->
  let s := trun thread_safe H (tinit c0 helds) sched in
  (forall t, In t (threads s) -> forall r, In r (rets t) -> r = H) /\
  (cache s = 0%N \/ cache s = H).
Proof.
  intros H c0 helds sched Hc Hs s.
  pose proof (trun_inv H sched _ (tinit_inv H c0 helds Hc Hs)) as I. fold s in I.
  split; [|apply (ti_cache _ _ I)].
  intros t Ht r Hr. pose proof (ti_threads _ _ I) as F. rewrite Forall_forall in F.
  destruct (F t Ht) as [R _]. rewrite Forall_forall in R. auto.
Qed.

(* C41 refcount_safe: with atomic read-modify-write no interleaving touches the object after its
   deletion, nobody deletes it while a thread still holds a handle, and once the last handle is
   dropped (and the dropping thread has run its delete) it has been deleted exactly once *)
Theorem refcount_safe : forall H c0 helds sched,
  (c0 = 0%N \/ c0 = H) -> 1 <= list_sum helds ->
  let s := trun thread_safe H (tinit c0 helds) sched in
  uaf s = false /\ rc s = total_held s /\ freed s <= 1 /\
  (1 <= total_held s -> freed s = 0) /\
  (total_held s = 0 -> all_idle s = true -> freed s = 1).
Proof.
  intros H c0 helds sched Hc Hs s.
  pose proof (trun_inv H sched _ (tinit_inv H c0 helds Hc Hs)) as I. fold s in I.
  destruct I as [IC IT IR IU IL ID].
  split; auto. split; auto. split; [|split].
  - destruct (total_held s) eqn:E; [specialize (ID eq_refl); lia | destruct IL; lia].
  - intros. destruct IL; auto.
  - intros Hz Hi. specialize (ID Hz).
    assert (M : must_free s = 0).
    { unfold must_free. apply sum_zero. intros t Ht. unfold all_idle in Hi.
      rewrite forallb_forall in Hi. specialize (Hi t Ht). unfold is_idle in Hi. unfold is_mf.
      destruct (tpc t); auto; discriminate. }
    lia.
Qed.

(* C41 nonatomic_refuted: the same protocol with the plain counter of the default build loses an
   update: two threads copy concurrently, the count is one short, the object is deleted while a
   thread still holds a handle, and that thread's next access touches freed memory *)
Definition na_sched : list (nat * req) :=
  [(0, RCopy); (1, RCopy); (0, RCopy); (1, RCopy);
   (0, RDrop); (0, RDrop); (0, RDrop); (0, RDrop);
   (1, RDrop); (1, RDrop); (1, RDrop); (1, RHash)].

Theorem nonatomic_refuted :
  let s := trun (mkMode false true) 5 (tinit 0 [1; 1]) na_sched in
  uaf s = true /\ freed s = 1 /\ total_held s = 1.
Proof. vm_compute. auto. Qed.

(* and the candidate breaking change of DESIGN section 13: a hash_ written in two halves lets a
   concurrent reader return a torn value *)
Definition torn_sched : list (nat * req) := [(0, RHash); (0, RHash); (1, RHash); (1, RHash)].

Theorem torn_hash_refuted :
  let s := trun (mkMode true false) 4294967297 (tinit 0 [1; 1]) torn_sched in
  exists t, nth_error (threads s) 1 = Some t /\ rets t = [1%N].
Proof. vm_compute. eexists. split; reflexivity. Qed.
