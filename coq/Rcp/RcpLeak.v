(* C40 -- an object is alive exactly while it is reachable from a handle; programs that drop all
   their handles return the heap to its baseline (no leak), for acyclic object graphs. *)
From Coq Require Import List Arith Bool Lia.
From SE Require Import Rcp.RcpModel Rcp.RcpSpec Rcp.RcpLemmas Rcp.RcpInv Rcp.RcpProofs.
Import ListNotations.

(* an object that is neither in a variable nor held from outside is a member of a younger
   object: induction on the distance of [id] from the end of the heap *)
Lemma live_reach_n : forall st, wf st -> forall n id,
  length (heap st) - id <= n -> live_at (heap st) id -> reach st id.
Proof.
  intros st [I P]. induction n as [|n IH]; intros id Hn Hl.
  - apply live_at_lt in Hl. lia.
  - pose proof (live_at_lt _ _ Hl) as Hlt. destruct Hl as (rc & e & k & Hx).
    pose proof (inv_count _ _ _ I _ _ _ _ Hx) as Hc. simpl in Hc.
    pose proof (P _ _ _ _ Hlt Hx) as Hp.
    destruct e as [|e].
    + destruct (le_lt_dec 1 (slot_refs (slots st) id)) as [Hs|Hs].
      * destruct (slot_refs_pos _ _ Hs) as [i Hi]. eapply reach_slot; eauto.
      * destruct (kid_refs_pos (heap st) id) as (p & rc1 & e1 & k1 & Hp1 & Hin). { lia. }
        destruct (inv_kids _ _ _ I _ _ _ _ Hp1 id Hin) as [Hlt1 _].
        apply (reach_kid st p k1 id); auto.
        -- apply IH. { pose proof (nth_some_lt _ _ _ _ Hp1). lia. } exists rc1, e1, k1. auto.
        -- apply kids_of_live. eauto.
    + eapply reach_ext; eauto.
Qed.

Theorem reach_live : forall st, wf st -> forall id, reach st id -> live_at (heap st) id.
Proof.
  intros st [I P] id R. induction R.
  - eapply inv_slots; eauto.
  - exists rc, (S e), k. auto.
  - apply kids_of_live in H. destruct H as (rc & e & Hp).
    destruct (inv_kids _ _ _ I _ _ _ _ Hp c H0). auto.
Qed.

(* C40: "every expression is freed once its last reference is dropped" and no earlier: in every
   state between two steps an object is alive iff a chain of handles leads to it *)
Theorem live_iff_reach : forall st, wf st -> forall id, live_at (heap st) id <-> reach st id.
Proof.
  intros st W id. split.
  - apply (live_reach_n st W (length (heap st) - id)). lia.
  - apply reach_live. auto.
Qed.

(* with all handles dropped, what is alive hangs on an object referenced from outside; here for
   outside objects without members (the library's constants are leaves) *)
Lemma null_slots_live_ext : forall st, wf st -> all_null (slots st) ->
  (forall x k, ext_pos (heap st) x -> kids_of (heap st) x = Some k -> k = []) ->
  forall id, live_at (heap st) id -> ext_pos (heap st) id.
Proof.
  intros st W N K id Hl. apply (live_iff_reach st W) in Hl. induction Hl.
  - apply N in H. discriminate.
  - exists rc, e, k. auto.
  - rewrite (K _ _ IHHl H) in H0. destruct H0.
Qed.

(* C40 rcp_no_leak (state form): all handles dropped, nothing referenced from outside: nothing is
   alive *)
Theorem no_leak : forall st, wf st -> all_null (slots st) ->
  (forall id rc e k, nth_error (heap st) id = Some (Live rc e k) -> e = 0) ->
  forall id, ~ live_at (heap st) id.
Proof.
  intros st W N E id Hl.
  assert (X : forall x, ~ ext_pos (heap st) x) by (intros x (rc & e & k & H); apply E in H; discriminate).
  apply (X id), null_slots_live_ext; auto. intros x k Hx. destruct (X x Hx).
Qed.

(* the objects referenced from outside the program are the same objects, with the same members,
   for ever *)
Definition pinned (h h' : list cell) : Prop :=
  (forall x, ext_pos h x -> ext_pos h' x /\ kids_of h' x = kids_of h x) /\
  (forall x, ext_pos h' x -> ext_pos h x).

Lemma pinned_refl : forall h, pinned h h.
Proof. intros. split; auto. Qed.

Lemma pinned_trans : forall h h1 h2, pinned h h1 -> pinned h1 h2 -> pinned h h2.
Proof.
  intros h h1 h2 [A B] [A' B']. split.
  - intros x Hx. destruct (A x Hx) as [H1 K1]. destruct (A' x H1) as [H2 K2].
    split; auto. congruence.
  - auto.
Qed.

Lemma step_pinned : forall st o st', wf st -> step st o = ROk st' -> pinned (heap st) (heap st').
Proof.
  intros st o st' W E.
  pose proof (sp_ev _ _ _ (step_ok st o st' W E)) as V. pose proof V as (A & B & C & D & F). split.
  - intros x Hx. pose proof (D x Hx) as Hl.
    pose proof (live_at_lt _ _ (ext_pos_live _ _ Hx)) as Hlt. split.
    + apply (evolves_ext_pos _ _ _ x V); auto.
    + apply C; auto. intro Hs. symmetry in Hs.
      destruct (stolen_unshared st o x W Hs) as (i & dest & rc & k & _ & _ & Hn & _).
      destruct Hx as (rc' & e' & k' & Hx). congruence.
  - intros x Hx. destruct (lt_dec x (length (heap st))).
    + apply (evolves_ext_pos _ _ _ x V); auto using ext_pos_live.
    + destruct Hx as (rc & e & k & Hx). apply F in Hx; [discriminate | lia].
Qed.

Lemma run_pinned : forall p st st', wf st -> run st p = ROk st' ->
  wf st' /\ pinned (heap st) (heap st').
Proof.
  intros p st st' W E.
  pose proof (run_sound (fun a b => pinned (heap a) (heap b)) (fun a => pinned_refl _)
                (fun a b c => pinned_trans _ _ _) step_pinned p st W) as H.
  rewrite E in H. exact H.
Qed.

Lemma init_ext_pos : forall exts n x, Forall (fun e => 1 <= e) exts ->
  (ext_pos (heap (init_state exts n)) x <-> x < length exts).
Proof.
  intros exts n x F. unfold init_state, ext_pos. simpl. split.
  - intros (rc & e & k & H). apply nth_some_lt in H. rewrite map_length in H. auto.
  - intros H. destruct (nth_error exts x) as [e|] eqn:E.
    + assert (1 <= e) by (rewrite Forall_forall in F; apply F; eapply nth_error_In; eauto).
      destruct e as [|e]; [lia|].
      exists (S e), e, []. erewrite map_nth_error; eauto.
    + apply nth_error_None in E. lia.
Qed.

Lemma init_kids : forall exts n x k, kids_of (heap (init_state exts n)) x = Some k -> k = [].
Proof.
  intros exts n x k H. apply kids_of_live in H. destruct H as (rc & e & H).
  destruct (init_cell _ _ _ _ H) as (e0 & _ & E). inversion E. auto.
Qed.

(* C40 rcp_no_leak (program form): whatever a program did, once all its handle variables are
   null again the live objects are exactly the objects that existed before it started *)
Theorem rcp_no_leak : forall exts n p st', Forall (fun e => 1 <= e) exts ->
  run (init_state exts n) p = ROk st' -> all_null (slots st') ->
  forall x, live_at (heap st') x <-> x < length exts.
Proof.
  intros exts n p st' F E N x.
  destruct (run_pinned p _ _ (init_wf exts n F) E) as [W [A B]].
  rewrite <- (init_ext_pos exts n x F). split.
  - intros Hl. apply B, null_slots_live_ext; auto.
    intros y k Hy Hk. destruct (A _ (B _ Hy)) as [_ K]. rewrite K in Hk. eapply init_kids; eauto.
  - intros Hx. apply ext_pos_live, A, Hx.
Qed.

Lemma live_count_prefix : forall h n, (forall x, live_at h x <-> x < n) ->
  length (filter is_live h) = n.
Proof.
  induction h as [|c h IH]; intros n H.
  - simpl. destruct n; auto. assert (Hl : live_at [] 0) by (apply H; lia).
    destruct Hl as (? & ? & ? & Hl). discriminate.
  - assert (H0 : live_at (c :: h) 0 <-> is_live c = true).
    { unfold live_at. simpl. split.
      - intros (rc & e & k & Hc). inversion Hc. auto.
      - destruct c; simpl; intros; try discriminate. eauto. }
    assert (HS : forall x, live_at (c :: h) (S x) <-> live_at h x) by (intros; unfold live_at; simpl; tauto).
    destruct n as [|n].
    + simpl. destruct (is_live c) eqn:Ec.
      * assert (0 < 0) by (apply H; apply H0; auto). lia.
      * apply IH. intros x. rewrite <- HS. rewrite H. lia.
    + simpl. destruct (is_live c) eqn:Ec.
      * simpl. f_equal. apply IH. intros x. rewrite <- HS. rewrite H. lia.
      * assert (Hl : live_at (c :: h) 0) by (apply H; lia). apply H0 in Hl. congruence.
Qed.

(* what the driver observes: the live-object count is back at its baseline *)
Theorem rcp_baseline : forall exts n p st', Forall (fun e => 1 <= e) exts ->
  run (init_state exts n) p = ROk st' -> all_null (slots st') ->
  live_count st' = length exts.
Proof.
  intros. unfold live_count. apply live_count_prefix. eapply rcp_no_leak; eauto.
Qed.
