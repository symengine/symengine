(* C40 -- how the primitive heap updates of the model act on the counting invariant. *)
From Coq Require Import List Arith Bool Lia.
From SE Require Import Rcp.RcpModel Rcp.RcpSpec Rcp.RcpLemmas.
Import ListNotations.

Definition ext_of (h : list cell) (id : nat) : option nat :=
  match nth_error h id with Some (Live _ e _) => Some e | _ => None end.

Definition ext_pos (h : list cell) (x : nat) : Prop :=
  exists rc e k, nth_error h x = Some (Live rc (S e) k).

(* what a sequence of heap updates keeps: surviving old objects keep their outside count and
   (except the object whose members were stolen) their members; objects referenced from outside
   survive; new objects are not referenced from outside *)
Definition evolves (ex : option nat) (h h' : list cell) : Prop :=
  length h <= length h' /\
  (forall x, x < length h -> live_at h' x -> ext_of h' x = ext_of h x) /\
  (forall x, x < length h -> live_at h' x -> Some x <> ex -> kids_of h' x = kids_of h x) /\
  (forall x, ext_pos h x -> live_at h' x) /\
  (forall x rc e k, length h <= x -> nth_error h' x = Some (Live rc e k) -> e = 0).

Lemma live_ext_of : forall h x, live_at h x <-> exists e, ext_of h x = Some e.
Proof.
  intros. unfold live_at, ext_of.
  destruct (nth_error h x) as [[rc e k|]|]; split; intros H; eauto;
    try (destruct H as (? & ? & ? & H); discriminate); destruct H as (? & H); discriminate.
Qed.

Lemma ext_pos_ext_of : forall h x, ext_pos h x <-> exists e, ext_of h x = Some (S e).
Proof.
  intros. unfold ext_pos, ext_of.
  destruct (nth_error h x) as [[rc e k|]|]; split; intros H;
    try (destruct H as (? & ? & ? & H); discriminate); try (destruct H as (? & H); discriminate).
  - destruct H as (? & e' & ? & H). inversion H. eauto.
  - destruct H as (e' & H). inversion H. eauto.
Qed.

Lemma ext_pos_live : forall h x, ext_pos h x -> live_at h x.
Proof. intros h x (rc & e & k & H). exists rc, (S e), k. auto. Qed.

Lemma evolves_ext_pos : forall ex h h' x, evolves ex h h' -> x < length h -> live_at h' x ->
  (ext_pos h' x <-> ext_pos h x).
Proof. intros ex h h' x (_ & B & _) Hlt Hl. rewrite !ext_pos_ext_of, (B x Hlt Hl). tauto. Qed.

Lemma evolves_refl : forall ex h, evolves ex h h.
Proof.
  intros. repeat split; auto using ext_pos_live.
  intros x rc e k Hx Hn. apply nth_some_lt in Hn. lia.
Qed.

Lemma evolves_weaken : forall ex h h', evolves None h h' -> evolves ex h h'.
Proof.
  intros ex h h' (A & B & C & D & E). repeat split; auto.
  intros. apply C; auto. discriminate.
Qed.

Lemma evolves_trans : forall ex h h' h'', evolves ex h h' -> evolves ex h' h'' -> evolves ex h h''.
Proof.
  intros ex h h1 h2 V V'. pose proof V as (A & B & C & D & E). pose proof V' as (A' & B' & C' & D' & E').
  assert (L : forall x, x < length h -> live_at h2 x -> live_at h1 x).
  { intros x Hx Hl. apply live_ext_of. rewrite <- B' by (auto; lia). apply live_ext_of. auto. }
  repeat split.
  - lia.
  - intros. rewrite B' by (auto; lia). apply B; auto.
  - intros. rewrite C' by (auto; lia). apply C; auto.
  - intros x Hx. apply D', (evolves_ext_pos ex h h1); auto.
    apply live_at_lt, ext_pos_live; auto.
  - intros x rc e k Hx Hn. destruct (le_dec (length h1) x).
    + eapply E'; eauto.
    + assert (Hl : live_at h2 x) by (exists rc, e, k; auto).
      assert (He : ext_of h2 x = Some e) by (unfold ext_of; rewrite Hn; auto).
      rewrite B' in He by (auto; lia).
      unfold ext_of in He. destruct (nth_error h1 x) as [[rc1 e1 k1|]|] eqn:E1; try discriminate.
      inversion He; subst. eapply E; eauto.
Qed.

(* the cell may change its counter, lose its members only if it is the exception, and die only
   if nothing outside holds it *)
Lemma evolves_upd : forall ex h id rc e k c,
  nth_error h id = Some (Live rc e k) ->
  match c with
  | Live _ e' k' => e' = e /\ (Some id <> ex -> k' = k)
  | Freed => e = 0
  end ->
  evolves ex h (upd h id c).
Proof.
  intros ex h id rc e k c Hn Hc.
  assert (Hlt : id < length h) by (eapply nth_some_lt; eauto).
  assert (Hid : nth_error (upd h id c) id = Some c) by (apply nth_upd_eq; auto).
  assert (X : forall x, x <> id -> nth_error (upd h id c) x = nth_error h x)
    by (intros; apply nth_upd_neq; auto).
  repeat split.
  - rewrite upd_length. lia.
  - intros x _ (rc0 & e0 & k0 & Hl). unfold ext_of.
    destruct (Nat.eq_dec x id) as [->|N]; [|rewrite X; auto].
    rewrite Hid in *. rewrite Hn. inversion Hl; subst c. destruct Hc as [-> _]. auto.
  - intros x _ (rc0 & e0 & k0 & Hl) Hne. unfold kids_of.
    destruct (Nat.eq_dec x id) as [->|N]; [|rewrite X; auto].
    rewrite Hid in *. rewrite Hn. inversion Hl; subst c. destruct Hc as [_ ->]; auto.
  - intros x (rc0 & e0 & k0 & Hx). destruct (Nat.eq_dec x id) as [->|N].
    + rewrite Hn in Hx. inversion Hx; subst. destruct c as [rc' e' k'|]; [|discriminate].
      exists rc', e', k'. auto.
    + exists rc0, (S e0), k0. rewrite X; auto.
  - intros x rc0 e0 k0 Hx Hn0. apply nth_some_lt in Hn0. rewrite upd_length in Hn0. lia.
Qed.

Lemma posb_upd : forall h id c n, posb n h ->
  (forall rc e k, c = Live rc e k -> 1 <= rc) -> posb n (upd h id c).
Proof.
  intros h id c n P Hc x rc e k Hlt Hx. apply upd_cases in Hx. destruct Hx as [Hx|Hx]; eauto.
Qed.

Lemma no_self_member : forall h s w id rc e k,
  inv h s w -> nth_error h id = Some (Live rc e k) -> occ k id = 0.
Proof.
  intros h s w id rc e k I Hn. apply (count_occ_not_In Nat.eq_dec). intro Hc.
  destruct (inv_kids _ _ _ I _ _ _ _ Hn id Hc). lia.
Qed.

(* The cell of [id] becomes [c] and the temporaries [w] become [w']: every other object is
   pointed to as often as before (handles that left the members of the cell are temporaries
   now), the new cell keeps a subset of the members and an exact counter; the object dies only
   if nothing points to it. *)
Lemma inv_upd : forall h s w w' id rc e k c,
  inv h s w -> nth_error h id = Some (Live rc e k) ->
  (forall x, x <> id -> cocc x c + occ w' x = occ k x + occ w x) ->
  match c with
  | Live rc' e' k' => incl k' k /\ rc' = e' + slot_refs s id + kid_refs h id + occ w' id
  | Freed => slot_refs s id + kid_refs h id + occ w' id = 0
  end ->
  inv (upd h id c) s w'.
Proof.
  intros h s w w' id rc e k c I Hn Hbal Hc.
  assert (Hlt : id < length h) by (eapply nth_some_lt; eauto).
  assert (Hid : nth_error (upd h id c) id = Some c) by (apply nth_upd_eq; auto).
  pose proof (inv_kids _ _ _ I _ _ _ _ Hn) as Hk.
  assert (HL : forall x, live_at h x -> 1 <= slot_refs s x + kid_refs h x + occ w' x ->
                         live_at (upd h id c) x).
  { intros x Hx Hr. destruct (Nat.eq_dec id x) as [<-|N]; [|apply live_at_upd_neq; auto].
    destruct c as [rc' e' k'|]; [exists rc', e', k'; auto | lia]. }
  constructor.
  - intros i x Hs. pose proof (slot_refs_ge _ _ _ Hs). apply HL; [eapply inv_slots; eauto | lia].
  - intros x rc0 e0 k0 Hx y Hy.
    assert (exists rc1 e1 k1, nth_error h x = Some (Live rc1 e1 k1) /\ In y k1)
      as (rc1 & e1 & k1 & Hx1 & Hy1).
    { destruct (Nat.eq_dec id x) as [<-|N].
      - rewrite Hid in Hx. inversion Hx; subst c. destruct Hc as [Hin _].
        exists rc, e, k. auto.
      - rewrite nth_upd_neq in Hx by auto. eauto. }
    destruct (inv_kids _ _ _ I _ _ _ _ Hx1 y Hy1). split; auto.
    pose proof (kid_refs_ge _ _ _ _ _ _ Hx1 Hy1). apply HL; [auto | lia].
  - intros x Hx. apply (count_occ_In Nat.eq_dec) in Hx. apply HL; [|lia].
    destruct (Nat.eq_dec x id) as [->|N]; [exists rc, e, k; auto|].
    specialize (Hbal x N). destruct (le_lt_dec 1 (occ k x)).
    + apply Hk. apply (count_occ_In Nat.eq_dec). lia.
    + eapply inv_work; eauto. apply (count_occ_In Nat.eq_dec). lia.
  - intros x rc0 e0 k0 Hx.
    pose proof (kid_refs_upd h id _ c x Hn) as Hu. simpl in Hu.
    destruct (Nat.eq_dec id x) as [<-|N].
    + rewrite Hid in Hx. inversion Hx; subst c. destruct Hc as [Hin Hrc]. simpl in Hu.
      pose proof (no_self_member _ _ _ _ _ _ _ I Hn).
      assert (occ k0 id = 0).
      { apply (count_occ_not_In Nat.eq_dec). intro Hy. apply Hin, Hk in Hy. lia. }
      lia.
    + rewrite nth_upd_neq in Hx by auto. pose proof (inv_count _ _ _ I _ _ _ _ Hx).
      specialize (Hbal x (not_eq_sym N)). lia.
Qed.

(* the handle variables change, the temporaries absorb the difference *)
Lemma inv_rebalance : forall h s s' w w', inv h s w ->
  (forall x, slot_refs s' x + occ w' x = slot_refs s x + occ w x) -> inv h s' w'.
Proof.
  intros h s s' w w' I Hc.
  assert (HL : forall x, 1 <= slot_refs s' x + occ w' x -> live_at h x).
  { intros x Hx. rewrite Hc in Hx. destruct (le_lt_dec 1 (slot_refs s x)) as [Hs|Hs].
    - destruct (slot_refs_pos _ _ Hs) as [i Hi]. eapply inv_slots; eauto.
    - eapply inv_work; eauto. apply (count_occ_In Nat.eq_dec). lia. }
  constructor.
  - intros i x Hs. pose proof (slot_refs_ge _ _ _ Hs). apply HL. lia.
  - eapply inv_kids; eauto.
  - intros x Hx. apply (count_occ_In Nat.eq_dec) in Hx. apply HL. lia.
  - intros x rc e k Hx. pose proof (inv_count _ _ _ I _ _ _ _ Hx). specialize (Hc x). lia.
Qed.

(* the members of an object are moved out of it *)
Lemma inv_take_members : forall h s w m rc e k,
  inv h s w -> nth_error h m = Some (Live rc e k) ->
  inv (upd h m (Live rc e [])) s (k ++ w).
Proof.
  intros h s w m rc e k I Hn. eapply inv_upd; eauto.
  - intros x N. rewrite count_occ_app. reflexivity.
  - split; [intros x []|]. rewrite count_occ_app, (no_self_member _ _ _ _ _ _ _ I Hn).
    apply (inv_count _ _ _ I _ _ _ _ Hn).
Qed.

(* what the counter operations of the model do to a heap: no allocation, no member or outside
   count changes, no live object is left with a zero counter *)
Definition updates (h h' : list cell) : Prop :=
  evolves None h h' /\ length h' = length h /\ (forall n, posb n h -> posb n h').

Lemma updates_refl : forall h, updates h h.
Proof. intros. split; [apply evolves_refl | auto]. Qed.

Lemma updates_trans : forall h h1 h2, updates h h1 -> updates h1 h2 -> updates h h2.
Proof.
  intros h h1 h2 (V & L & P) (V' & L' & P').
  split; [eapply evolves_trans; eauto | split; [congruence | auto]].
Qed.

Lemma updates_evolves : forall ex h h', updates h h' -> evolves ex h h'.
Proof. intros ex h h' (V & _). apply evolves_weaken, V. Qed.

Lemma updates_length : forall h h', updates h h' -> length h' = length h.
Proof. intros h h' (_ & L & _). exact L. Qed.

Lemma updates_posb_below : forall h h' n, updates h h' -> posb n h -> posb n h'.
Proof. intros h h' n (_ & _ & P). apply P. Qed.

Lemma updates_posb : forall h h', updates h h' -> posb (length h) h -> posb (length h') h'.
Proof. intros h h' U H. rewrite (updates_length _ _ U). eapply updates_posb_below; eauto. Qed.

Lemma updates_upd : forall h id rc e k c,
  nth_error h id = Some (Live rc e k) ->
  match c with Live rc' e' k' => e' = e /\ k' = k /\ 1 <= rc' | Freed => e = 0 end ->
  updates h (upd h id c).
Proof.
  intros h id rc e k c Hn Hc. split; [|split].
  - eapply evolves_upd; eauto. destruct c; intuition.
  - apply upd_length.
  - intros n P. apply posb_upd; auto. intros rc' e' k' ->. apply Hc.
Qed.

(* p->refcount_++ on a live object; the new reference is held by a temporary *)
Lemma incref_ok : forall h s w id, inv h s w -> live_at h id ->
  exists h', incref h id = ROk h' /\ inv h' s (id :: w) /\ updates h h'.
Proof.
  intros h s w id I (rc & e & k & Hn).
  unfold incref. rewrite Hn. eexists. split; [reflexivity|]. split.
  - eapply inv_upd; eauto.
    + intros x N. rewrite count_occ_cons_neq by auto. reflexivity.
    + split; [apply incl_refl|]. rewrite count_occ_cons_eq by auto.
      pose proof (inv_count _ _ _ I _ _ _ _ Hn). lia.
  - eapply updates_upd; eauto. repeat split; lia.
Qed.

Lemma incref_live : forall h id h' x, incref h id = ROk h' -> live_at h x -> live_at h' x.
Proof.
  unfold incref. intros h id h' x E Hx.
  destruct (nth_error h id) as [[rc e k|]|] eqn:Hn; inversion E.
  destruct (Nat.eq_dec id x) as [<-|N]; [|apply live_at_upd_neq; auto].
  exists (S rc), e, k. apply nth_upd_eq. eapply nth_some_lt; eauto.
Qed.

Lemma incref_all_ok : forall ids h s w, inv h s w -> (forall c, In c ids -> live_at h c) ->
  exists h', incref_all h ids = ROk h' /\ inv h' s (ids ++ w) /\ updates h h'.
Proof.
  induction ids as [|id r IH]; intros h s w I Hl.
  - exists h. simpl. auto using updates_refl.
  - destruct (incref_ok h s w id I (Hl id (or_introl eq_refl))) as (h1 & E1 & I1 & U1).
    destruct (IH h1 s (id :: w) I1) as (h2 & E2 & I2 & U2).
    { intros c Hc. eapply incref_live; eauto. apply Hl. right. auto. }
    exists h2. simpl. rewrite E1. simpl. rewrite E2.
    split; [reflexivity|]. split; [|eapply updates_trans; eauto].
    apply (inv_rebalance _ _ _ _ _ I2). intros x. simpl. rewrite !count_occ_app. simpl.
    destruct (Nat.eq_dec id x); lia.
Qed.

(* one pending decrement: a single cell changes (the object dies and its member handles become
   pending decrements, or its counter goes down), and the sum of all counters falls by one,
   which is why [decref] gives [release] that sum as fuel *)
Lemma release_step : forall h s id w, inv h s (id :: w) ->
  exists c w', (forall f, release (S f) h (id :: w) = release f (upd h id c) w') /\
    inv (upd h id c) s w' /\ updates h (upd h id c) /\ S (total_rc (upd h id c)) = total_rc h.
Proof.
  intros h s id w I.
  destruct (inv_work _ _ _ I id (or_introl eq_refl)) as (rc & e & k & Hn).
  pose proof (inv_count _ _ _ I _ _ _ _ Hn) as Hc. rewrite count_occ_cons_eq in Hc by auto.
  pose proof (no_self_member _ _ _ _ _ _ _ I Hn) as Hs.
  assert (Hw : forall x, x <> id -> occ (id :: w) x = occ w x)
    by (intros; apply count_occ_cons_neq; auto).
  destruct rc as [|[|rc']]; [lia| |].
  - exists Freed, (k ++ w). split; [intros f; simpl; rewrite Hn; reflexivity|]. split; [|split].
    + eapply inv_upd; eauto.
      * intros x N. rewrite count_occ_app, Hw by auto. reflexivity.
      * rewrite count_occ_app. lia.
    + eapply updates_upd; eauto. simpl. lia.
    + pose proof (total_rc_upd h id _ Freed Hn) as Ht. simpl in Ht. lia.
  - exists (Live (S rc') e k), w. split; [intros f; simpl; rewrite Hn; reflexivity|]. split; [|split].
    + eapply inv_upd; eauto.
      * intros x N. rewrite Hw by auto. reflexivity.
      * split; [apply incl_refl | lia].
    + eapply updates_upd; eauto. repeat split; lia.
    + pose proof (total_rc_upd h id _ (Live (S rc') e k) Hn) as Ht. simpl in Ht. lia.
Qed.

(* the cascade of a destructor: never touches a freed object, never runs out of fuel *)
Lemma release_ok : forall fuel h s w, inv h s w -> total_rc h < fuel ->
  exists h', release fuel h w = ROk h' /\ inv h' s [] /\ updates h h'.
Proof.
  induction fuel as [|f IH]; intros h s w I Hf; [lia|].
  destruct w as [|id w].
  - exists h. simpl. auto using updates_refl.
  - destruct (release_step h s id w I) as (c & w' & E & I1 & U1 & Ht).
    destruct (IH _ s w' I1) as (h' & E' & I' & U'); [lia|].
    exists h'. rewrite E. split; [exact E'|]. split; [exact I'|]. eapply updates_trans; eauto.
Qed.

Lemma decref_opt_ok : forall h s old, inv h s (olist old) ->
  exists h', decref_opt h old = ROk h' /\ inv h' s [] /\ updates h h'.
Proof.
  intros h s [o|] I; simpl in *.
  - unfold decref. apply release_ok; [exact I | lia].
  - exists h. auto using updates_refl.
Qed.

(* [n] temporaries hold the new object; the handles copied into its members stop being
   temporaries *)
Lemma inv_alloc : forall h s w ids n, inv h s (ids ++ w) ->
  inv (h ++ [Live n 0 ids]) s (repeat (length h) n ++ w).
Proof.
  intros h s w ids n I.
  assert (HL : forall x, live_at h x -> live_at (h ++ [Live n 0 ids]) x).
  { intros x Hx. pose proof (live_at_lt _ _ Hx). destruct Hx as (rc & e & k & Hx).
    exists rc, e, k. rewrite nth_error_app1; auto. }
  assert (Hnl : ~ live_at h (length h)) by (intro Hx; apply live_at_lt in Hx; lia).
  assert (Hw : forall x, In x (ids ++ w) -> live_at h x) by (eapply inv_work; eauto).
  constructor.
  - intros i x Hs. apply HL. eapply inv_slots; eauto.
  - intros x rc0 e0 k0 Hx c Hc. apply nth_app_cases in Hx. destruct Hx as [[Hlt Hx]|[Hx E]].
    + destruct (inv_kids _ _ _ I _ _ _ _ Hx c Hc). split; auto.
    + inversion E; subst. assert (live_at h c) by (apply Hw, in_or_app; auto).
      split; auto. apply live_at_lt. auto.
  - intros x Hx. apply in_app_or in Hx. destruct Hx as [Hx|Hx].
    + apply repeat_spec in Hx. subst x. exists n, 0, ids. apply nth_app_new.
    + apply HL, Hw, in_or_app. auto.
  - intros x rc0 e0 k0 Hx. rewrite kid_refs_app, count_occ_app. simpl.
    apply nth_app_cases in Hx. destruct Hx as [[Hlt Hx]|[Hx E]].
    + pose proof (inv_count _ _ _ I _ _ _ _ Hx) as Hc. rewrite count_occ_app in Hc.
      rewrite count_occ_repeat_neq by lia. lia.
    + inversion E; subst. rewrite count_occ_repeat_eq by auto.
      assert (slot_refs s (length h) = 0).
      { apply slot_refs_zero. intros i Hi. apply Hnl. eapply inv_slots; eauto. }
      assert (kid_refs h (length h) = 0).
      { apply kid_refs_zero. intros p rc e k Hp Hc. apply Hnl.
        destruct (inv_kids _ _ _ I _ _ _ _ Hp _ Hc). auto. }
      assert (occ (ids ++ w) (length h) = 0).
      { apply (count_occ_not_In Nat.eq_dec). intro Hc. apply Hnl. auto. }
      rewrite count_occ_app in *. lia.
Qed.

Lemma evolves_app : forall h n ids, evolves None h (h ++ [Live n 0 ids]).
Proof.
  intros. repeat split.
  - rewrite app_length. lia.
  - intros. unfold ext_of. rewrite nth_error_app1; auto.
  - intros. unfold kids_of. rewrite nth_error_app1; auto.
  - intros x Hx. pose proof (live_at_lt _ _ (ext_pos_live _ _ Hx)).
    destruct Hx as (rc & e & k & Hx). exists rc, (S e), k. rewrite nth_error_app1; auto.
  - intros x rc e k Hx Hn. apply nth_app_cases in Hn. destruct Hn as [[Hlt _]|[_ E]].
    + lia.
    + inversion E. auto.
Qed.

Lemma posb_app : forall h c n, posb n h -> n <= length h -> posb n (h ++ [c]).
Proof.
  intros h c n P Hn x rc e k Hlt Hx. rewrite nth_error_app1 in Hx by lia. eapply P; eauto.
Qed.

Lemma posb_extend : forall h n, posb n h ->
  (forall rc e k, nth_error h n = Some (Live rc e k) -> 1 <= rc) -> posb (S n) h.
Proof.
  intros h n P H x rc e k Hlt Hx. destruct (Nat.eq_dec x n).
  - subst. eapply H; eauto.
  - eapply P; eauto. lia.
Qed.

Lemma posb_app_new : forall h n e k, posb (length h) h -> 1 <= n ->
  posb (length (h ++ [Live n e k])) (h ++ [Live n e k]).
Proof.
  intros h n e k P Hn. rewrite app_length. simpl. rewrite Nat.add_1_r. apply posb_extend.
  - apply posb_app; auto.
  - intros rc0 e0 k0 Hx. rewrite nth_app_new in Hx. inversion Hx. lia.
Qed.
