(* C40 -- held expressions are immutable: no step changes what a handle variable that the step
   does not assign lets its holder observe.  Instance: the dictionary stealing of Add::from_dict
   (use_count() == 1) is unobservable; with the threshold 2 it is observable (refutation). *)
From Coq Require Import List Arith Bool Lia.
From SE Require Import Rcp.RcpModel Rcp.RcpSpec Rcp.RcpLemmas Rcp.RcpInv Rcp.RcpProofs Rcp.RcpLeak.
Import ListNotations.

Lemma view_stable : forall h h' f id,
  (forall x, reach_from h id x -> kids_of h' x = kids_of h x) -> view f h' id = view f h id.
Proof.
  induction f as [|f IH]; intros id H; simpl; auto.
  rewrite (H id (rf_refl h id)).
  destruct (kids_of h id) as [k|] eqn:Ek; auto.
  f_equal. apply map_ext_in. intros c Hc. apply IH. intros x Hx. apply H. eapply rf_step; eauto.
Qed.

Lemma two_slots : forall s i j m, i <> j ->
  nth_error s i = Some (Some m) -> nth_error s j = Some (Some m) -> 2 <= slot_refs s m.
Proof.
  intros s i j m N Hi Hj.
  pose proof (slot_refs_upd s i (Some m) None m Hi) as H. simpl in H.
  destruct (Nat.eq_dec m m); [|congruence].
  assert (Hj' : nth_error (upd s i None) j = Some (Some m)) by (rewrite nth_upd_neq; auto).
  pose proof (slot_refs_ge _ _ _ Hj'). lia.
Qed.

Section Held.
  Variables (st st' : state) (o : op).
  Hypothesis W : wf st.
  Hypothesis E : step st o = ROk st'.

  Let POST : step_post st o st'.
  Proof. exact (step_ok st o st' W E). Qed.

  (* an object that survives the step and is not the one whose members are moved out *)
  Definition good (x : nat) : Prop :=
    live_at (heap st) x /\ live_at (heap st') x /\ Some x <> stolen st o.

  Lemma good_kids : forall x, good x -> kids_of (heap st') x = kids_of (heap st) x.
  Proof using W E.
    intros x (L1 & L2 & NS). destruct (sp_ev _ _ _ POST) as (_ & _ & C & _).
    apply C; auto. apply live_at_lt. auto.
  Qed.

  Lemma good_kid : forall a k c, good a -> kids_of (heap st) a = Some k -> In c k -> good c.
  Proof using W E.
    intros a k c G Hk Hc.
    destruct W as [I P]. destruct (sp_wf _ _ _ POST) as [I' P'].
    pose proof Hk as Hk'. rewrite <- (good_kids a G) in Hk'.
    apply kids_of_live in Hk. destruct Hk as (rc & e & Ha).
    apply kids_of_live in Hk'. destruct Hk' as (rc' & e' & Ha').
    split; [|split].
    - apply (inv_kids _ _ _ I _ _ _ _ Ha c Hc).
    - apply (inv_kids _ _ _ I' _ _ _ _ Ha' c Hc).
    - intro Hs. symmetry in Hs.
      destruct (stolen_unshared st o c (conj I P) Hs) as (i & dest & r0 & k0 & _ & _ & _ & _ & Hz).
      pose proof (kid_refs_ge _ _ _ _ _ _ Ha Hc). lia.
  Qed.

  Lemma good_reach : forall a x, reach_from (heap st) a x -> good a -> good x.
  Proof using W E.
    intros a x R. induction R; intros G; auto.
    apply IHR. eapply good_kid; eauto.
  Qed.

  Lemma good_slot : forall j id, ~ In j (writes o) ->
    nth_error (slots st) j = Some (Some id) -> good id.
  Proof using W E.
    intros j id Hj Hs. destruct W as [I P]. destruct (sp_wf _ _ _ POST) as [I' P'].
    split; [|split].
    - eapply inv_slots; eauto.
    - eapply inv_slots; eauto. rewrite (sp_slots _ _ _ POST j Hj). eauto.
    - intro Hst. symmetry in Hst.
      destruct (stolen_unshared st o id (conj I P) Hst) as (i & dest & r0 & k0 & Eo & Hi & _ & H1 & _).
      subst o. simpl in Hj.
      assert (i <> j) by (intro; subst; apply Hj; auto).
      pose proof (two_slots _ _ _ _ H Hi Hs). lia.
  Qed.

End Held.

(* C40: expressions are immutable while held *)
Theorem held_immutable : forall st o st' j, wf st -> step st o = ROk st' ->
  ~ In j (writes o) -> view_slot st' j = view_slot st j.
Proof.
  intros st o st' j W E Hj. pose proof (step_ok st o st' W E) as POST.
  unfold view_slot. rewrite (sp_slots _ _ _ POST j Hj).
  destruct (nth_error (slots st) j) as [[id|]|] eqn:Hs; auto.
  f_equal. apply view_stable. intros x Hx.
  apply (good_kids st st' o W E), (good_reach st st' o W E id x Hx), (good_slot st st' o W E j id Hj Hs).
Qed.

(* C40 steal_safe: moving the dictionary out of a Mul whose use_count() is 1 changes nothing that
   any other handle can observe *)
Theorem steal_safe : forall st i dest st' j, wf st -> step st (OSteal i dest) = ROk st' ->
  j <> i -> j <> dest -> view_slot st' j = view_slot st j.
Proof.
  intros. eapply held_immutable; eauto. simpl. intros [Hc|[Hc|[]]]; congruence.
Qed.

(* ... because the temporary dictionary v[i] is then the only handle to it *)
Theorem steal_exclusive : forall st i dest m, wf st -> stolen st (OSteal i dest) = Some m ->
  nth_error (slots st) i = Some (Some m) /\ slot_refs (slots st) m = 1 /\ kid_refs (heap st) m = 0 /\
  ext_of (heap st) m = Some 0.
Proof.
  intros st i dest m W H.
  destruct (stolen_unshared st _ m W H) as (i0 & d0 & rc & k & Eo & Hi & Hn & H1 & H2).
  inversion Eo; subst. repeat split; auto. unfold ext_of. rewrite Hn. auto.
Qed.

(* the same code with `use_count() <= 2`: another holder sees its expression change *)
Definition prog2 : list op := [OMake 0 []; OMake 1 [0]; OCopy 2 1].
Definition st2 : state :=
  match run (init_state [] 4) prog2 with ROk st => st | _ => init_state [] 4 end.

Theorem steal_threshold_2_refuted :
  wf st2 /\ exists st', step_gen 2 st2 (OSteal 1 3) = ROk st' /\
    view_slot st2 2 = Some (T [T []]) /\ view_slot st' 2 = Some (T []).
Proof.
  assert (E : run (init_state [] 4) prog2 = ROk st2) by (vm_compute; reflexivity).
  split.
  - pose proof (rcp_no_uaf [] 4 prog2 (Forall_nil _)) as H. rewrite E in H. exact H.
  - eexists. split; [vm_compute; reflexivity|]. split; vm_compute; reflexivity.
Qed.

(* the no-leak theorem needs acyclic graphs: two objects holding each other keep exact counters
   and stay alive without any handle *)
Definition cyc : list cell := [Live 1 0 [1]; Live 1 0 [0]].
Theorem cycle_leaks :
  (forall id rc e k, nth_error cyc id = Some (Live rc e k) ->
     rc = e + slot_refs [] id + kid_refs cyc id) /\ live_at cyc 0 /\ live_at cyc 1.
Proof.
  split; [|split].
  - intros id rc e k H. destruct id as [|[|id]]; simpl in H.
    + inversion H; subst. vm_compute. reflexivity.
    + inversion H; subst. vm_compute. reflexivity.
    + destruct id; discriminate.
  - exists 1, 0, [1]. reflexivity.
  - exists 1, 0, [0]. reflexivity.
Qed.
