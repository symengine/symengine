(* C40 -- every step of a handle program keeps the counting invariant, never touches a freed
   object and never runs out of fuel. *)
From Coq Require Import List Arith Bool Lia.
From SE Require Import Rcp.RcpModel Rcp.RcpSpec Rcp.RcpLemmas Rcp.RcpInv.
Import ListNotations.

(* the object whose members a step moves out (Add::from_dict stealing), if any *)
Definition stolen (st : state) (o : op) : option nat :=
  match o with
  | OSteal i _ =>
      match nth_error (slots st) i with
      | Some (Some m) =>
          match nth_error (heap st) m with
          | Some (Live rc _ _) => if rc <=? steal_threshold then Some m else None
          | _ => None
          end
      | _ => None
      end
  | _ => None
  end.

(* use_count() == 1: the temporary dictionary v[i] is then the only handle to that object *)
Lemma stolen_unshared : forall st o m, wf st -> stolen st o = Some m ->
  exists i dest rc k, o = OSteal i dest /\ nth_error (slots st) i = Some (Some m) /\
    nth_error (heap st) m = Some (Live rc 0 k) /\ slot_refs (slots st) m = 1 /\
    kid_refs (heap st) m = 0.
Proof.
  intros st o m [I P] H. destruct o; simpl in H; try discriminate.
  destruct (nth_error (slots st) i) as [[m0|]|] eqn:Hs; try discriminate.
  destruct (nth_error (heap st) m0) as [[rc e k|]|] eqn:Hn; try discriminate.
  destruct (rc <=? steal_threshold) eqn:Ht; try discriminate. inversion H; subst m0.
  apply Nat.leb_le in Ht. unfold steal_threshold in Ht.
  pose proof (inv_count _ _ _ I _ _ _ _ Hn) as Hc. simpl in Hc.
  pose proof (slot_refs_ge _ _ _ Hs).
  assert (e = 0) by lia. subst e.
  exists i, dest, rc, k. repeat split; auto; lia.
Qed.

Record step_post (st : state) (o : op) (st' : state) : Prop := mkPost {
  sp_wf : wf st';
  sp_ev : evolves (stolen st o) (heap st) (heap st');
  sp_slots : forall j, ~ In j (writes o) -> nth_error (slots st') j = nth_error (slots st) j;
  sp_len : length (slots st') = length (slots st)
}.

Definition post (st : state) (o : op) (r : rres state) : Prop :=
  match r with
  | ROk st' => step_post st o st'
  | RBad _ => True
  | RUaf _ => False
  | RFuel => False
  end.

Lemma slot_set : forall s i old new x, nth_error s i = Some old ->
  slot_refs (upd s i new) x + occ (olist old) x = slot_refs s x + occ (olist new) x.
Proof. intros. rewrite !occ_olist0. apply slot_refs_upd. auto. Qed.

(* how every step ends: the handle [old] that the assigned variable held is a temporary now; it
   dies, and the cascade of its destructor runs *)
Lemma finish : forall st o h1 s' old,
  inv h1 s' (olist old) -> posb (length h1) h1 ->
  evolves (stolen st o) (heap st) h1 ->
  (forall j, ~ In j (writes o) -> nth_error s' j = nth_error (slots st) j) ->
  length s' = length (slots st) ->
  post st o (rbind (decref_opt h1 old) (fun h' => ROk (mkState h' s'))).
Proof.
  intros st o h1 s' old I P V W L.
  destruct (decref_opt_ok h1 s' old I) as (h' & E & I' & U).
  rewrite E. simpl. constructor; simpl; auto.
  - split; simpl; auto. eapply updates_posb; eauto.
  - eapply evolves_trans; [exact V | apply (updates_evolves _ _ _ U)].
Qed.

(* v[i] := r, where the reference in r is already counted (held by a temporary) *)
Lemma tail_ok : forall st o h1 s1 i r old,
  nth_error s1 i = Some old ->
  inv h1 s1 (olist r) -> posb (length h1) h1 ->
  evolves (stolen st o) (heap st) h1 ->
  In i (writes o) ->
  (forall j, ~ In j (writes o) -> nth_error s1 j = nth_error (slots st) j) ->
  length s1 = length (slots st) ->
  post st o (rbind (decref_opt h1 old) (fun h2 => ROk (mkState h2 (upd s1 i r)))).
Proof.
  intros st o h1 s1 i r old Ho I P V Wi W L.
  apply finish; auto.
  - apply (inv_rebalance _ _ _ _ _ I). intros x. apply slot_set. auto.
  - intros j Hj. rewrite nth_upd_neq by (intros <-; auto). auto.
  - rewrite upd_length. auto.
Qed.

Lemma assign_ok : forall st o h1 i id,
  inv h1 (slots st) [id] -> posb (length h1) h1 ->
  evolves (stolen st o) (heap st) h1 ->
  In i (writes o) ->
  post st o (assign_temp st h1 i id).
Proof.
  intros st o h1 i id I P V W. unfold assign_temp, get_slot.
  destruct (nth_error (slots st) i) as [old|] eqn:Ho; simpl; auto.
  apply (tail_ok st o h1 (slots st) i (Some id) old); auto.
Qed.

(* RCP(const RCP&) of a handle held in a variable: the copy is a temporary *)
Lemma copy_handle : forall st o j id, wf st -> nth_error (slots st) j = Some (Some id) ->
  exists h1, incref (heap st) id = ROk h1 /\ inv h1 (slots st) [id] /\
             posb (length h1) h1 /\ evolves (stolen st o) (heap st) h1.
Proof.
  intros st o j id [I P] Hj.
  destruct (incref_ok _ _ [] id I) as (h1 & E & I1 & U1); [eapply inv_slots; eauto|].
  exists h1. split; [exact E|]. split; [exact I1|]. split.
  - eapply updates_posb; eauto.
  - apply (updates_evolves _ _ _ U1).
Qed.

Lemma get_objs_live : forall h s w ks, inv h s w ->
  match get_objs s ks with
  | ROk ids => forall c, In c ids -> live_at h c
  | RBad _ => True
  | _ => False
  end.
Proof.
  intros h s w ks I. induction ks as [|k r IH]; simpl; [intros c []|].
  unfold get_obj. destruct (nth_error s k) as [[id|]|] eqn:Hk; simpl; auto.
  destruct (get_objs s r); simpl; auto.
  intros c [<-|Hc]; [eapply inv_slots; eauto | auto].
Qed.

Lemma live_b_live : forall h c, live_b h c = true -> live_at h c.
Proof.
  unfold live_b, live_at. intros h c H.
  destruct (nth_error h c) as [[rc e k|]|]; try discriminate. eauto.
Qed.

Lemma step_move : forall st i j, wf st -> post st (OMove i j) (step st (OMove i j)).
Proof.
  intros [h s] i j [I P]. simpl in *. unfold step, step_gen. simpl. unfold get_slot.
  destruct (nth_error s j) as [r|] eqn:Hr; simpl; auto.
  destruct (nth_error s i) as [old|] eqn:Ho; simpl; auto.
  assert (Hi : i < length s) by (eapply nth_some_lt; eauto).
  assert (Hj : nth_error (upd s i r) j = Some r).
  { destruct (Nat.eq_dec i j). subst. apply nth_upd_eq; auto. rewrite nth_upd_neq; auto. }
  constructor; simpl.
  - split; simpl; auto. apply (inv_rebalance _ _ _ _ _ I). intros x.
    pose proof (slot_refs_upd s i old r x Ho).
    pose proof (slot_refs_upd (upd s i r) j r old x Hj). lia.
  - apply evolves_refl.
  - intros j0 Hn.
    assert (i <> j0 /\ j <> j0) as [N1 N2] by (split; intro; apply Hn; simpl; auto).
    rewrite !nth_upd_neq; auto.
  - rewrite !upd_length. auto.
Qed.

Lemma step_reset_gen : forall st o i, wf st -> writes o = [i] ->
  post st o (rbind (get_slot (slots st) i) (fun old =>
             rbind (decref_opt (heap st) old) (fun h' =>
             ROk (mkState h' (upd (slots st) i None))))).
Proof.
  intros [h s] o i [I P] W. simpl in *. unfold get_slot.
  destruct (nth_error s i) as [old|] eqn:Ho; simpl; auto.
  apply (tail_ok (mkState h s) o h s i None old); simpl; auto.
  - apply evolves_refl.
  - rewrite W. left. auto.
Qed.

Lemma step_copy : forall st i j, wf st -> post st (OCopy i j) (step st (OCopy i j)).
Proof.
  intros [h s] i j W. pose proof W as [I P]. simpl in *. unfold step, step_gen. simpl. unfold get_slot.
  destruct (nth_error s j) as [r|] eqn:Hr; simpl; auto.
  destruct (nth_error s i) as [old|] eqn:Ho; simpl; auto.
  destruct r as [id|].
  - destruct (copy_handle _ (OCopy i j) j id W Hr) as (h1 & E & I1 & P1 & V1). simpl in E.
    rewrite E. simpl.
    apply (tail_ok (mkState h s) (OCopy i j) h1 s i (Some id) old); simpl; auto.
  - simpl.
    apply (tail_ok (mkState h s) (OCopy i j) h s i None old); simpl; auto.
    apply evolves_refl.
Qed.

Lemma step_movector : forall st i j, wf st -> post st (OMoveCtor i j) (step st (OMoveCtor i j)).
Proof.
  intros [h s] i j [I P]. simpl in *. unfold step, step_gen. simpl. unfold get_slot.
  destruct (nth_error s j) as [r|] eqn:Hr; simpl; auto.
  destruct (nth_error s i) as [old0|] eqn:Ho0; simpl; auto.
  destruct (nth_error (upd s j None) i) as [old|] eqn:Ho; simpl; auto.
  apply (tail_ok (mkState h s) (OMoveCtor i j) h (upd s j None) i r old); simpl; auto.
  - apply (inv_rebalance _ _ _ _ _ I). intros x. apply (slot_set s j r None x Hr).
  - apply evolves_refl.
  - intros j0 Hj. apply nth_upd_neq. intros <-. auto.
  - apply upd_length.
Qed.

Lemma step_fromthis : forall st i j, wf st -> post st (OFromThis i j) (step st (OFromThis i j)).
Proof.
  intros [h s] i j W. simpl in *. unfold step, step_gen. simpl. unfold get_obj.
  destruct (nth_error s j) as [[id|]|] eqn:Hr; simpl; auto.
  destruct (copy_handle _ (OFromThis i j) j id W Hr) as (h1 & E & I1 & P1 & V1). simpl in E.
  rewrite E. simpl.
  apply (assign_ok (mkState h s) (OFromThis i j) h1 i id); simpl; auto.
Qed.

Lemma step_temp : forall st j, wf st -> post st (OTemp j) (step st (OTemp j)).
Proof.
  intros [h s] j W. simpl in *. unfold step, step_gen. simpl. unfold get_slot.
  destruct (nth_error s j) as [r|] eqn:Hr; simpl; auto.
  destruct r as [id|].
  - destruct (copy_handle _ (OTemp j) j id W Hr) as (h1 & E & I1 & P1 & V1). simpl in E.
    rewrite E. simpl.
    apply (finish (mkState h s) (OTemp j) h1 s (Some id)); simpl; auto.
  - constructor; simpl; auto. apply evolves_refl.
Qed.

Lemma step_make : forall st i ks, wf st -> post st (OMake i ks) (step st (OMake i ks)).
Proof.
  intros [h s] i ks [I P]. simpl in *. unfold step, step_gen. simpl.
  pose proof (get_objs_live h s [] ks I) as Hl.
  destruct (get_objs s ks) as [ids| | |]; simpl; auto.
  destruct (incref_all_ok ids h s [] I Hl) as (h1 & E1 & I1 & U1).
  rewrite E1. simpl.
  pose proof (inv_alloc h1 s [] ids 1 I1) as I2. simpl in I2. rewrite (updates_length _ _ U1) in I2.
  apply (assign_ok (mkState h s) (OMake i ks) (h1 ++ [Live 1 0 ids]) i (length h)); simpl; auto.
  - apply posb_app_new; auto. eapply updates_posb; eauto.
  - eapply evolves_trans; [apply (updates_evolves _ _ _ U1) | apply evolves_app].
Qed.

(* a new object with zero counter was appended; its first handle is assigned to v[dest] *)
Lemma new_cell_tail : forall st o hb k dest,
  inv (hb ++ [Live 0 0 k]) (slots st) [] -> length hb = length (heap st) -> posb (length hb) hb ->
  evolves (stolen st o) (heap st) hb ->
  In dest (writes o) ->
  post st o (rbind (incref (hb ++ [Live 0 0 k]) (length (heap st)))
                   (fun h2 => assign_temp st h2 dest (length (heap st)))).
Proof.
  intros st o hb k dest I L P V W.
  assert (Hl : live_at (hb ++ [Live 0 0 k]) (length (heap st))).
  { exists 0, 0, k. rewrite <- L. apply nth_app_new. }
  destruct (incref_ok _ _ [] _ I Hl) as (h2 & E2 & I2 & U2).
  rewrite E2. simpl.
  apply assign_ok; auto.
  - rewrite (updates_length _ _ U2), app_length. simpl. rewrite Nat.add_1_r.
    apply posb_extend.
    + apply (updates_posb_below _ _ _ U2). apply posb_app; auto.
    + intros rc e k0 Hx. pose proof (inv_count _ _ _ I2 _ _ _ _ Hx) as Hc.
      rewrite L in Hc. rewrite count_occ_cons_eq in Hc by auto. lia.
  - eapply evolves_trans; [exact V|].
    eapply evolves_trans; [apply evolves_weaken, evolves_app | apply (updates_evolves _ _ _ U2)].
Qed.

Lemma step_steal : forall st i dest, wf st -> post st (OSteal i dest) (step st (OSteal i dest)).
Proof.
  intros [h s] i dest [I P]. simpl in *. unfold step, step_gen. simpl. unfold get_obj.
  destruct (nth_error s i) as [[m|]|] eqn:Hs; simpl; auto.
  destruct (inv_slots _ _ _ I _ _ Hs) as (rc & e & k & Hn).
  unfold steal_members. rewrite Hn.
  destruct (rc <=? steal_threshold) eqn:Ht; simpl.
  - (* the members are stolen *)
    apply (new_cell_tail (mkState h s) (OSteal i dest) (upd h m (Live rc e [])) k dest); simpl; auto.
    + apply (inv_alloc _ s [] k 0), inv_take_members; auto.
    + apply upd_length.
    + rewrite upd_length. apply posb_upd; auto. intros rc' e' k' Ec. inversion Ec; subst.
      eapply P; eauto. eapply nth_some_lt; eauto.
    + (* [stolen] is [Some m] here: [m] is the one object that may lose its members *)
      rewrite Hs, Hn, Ht. eapply evolves_upd; eauto. simpl. split; congruence.
  - (* the members are copied *)
    assert (Hk : forall c, In c k -> live_at h c).
    { intros c Hc. destruct (inv_kids _ _ _ I _ _ _ _ Hn c Hc). auto. }
    destruct (incref_all_ok k h s [] I Hk) as (h1 & E1 & I1 & U1).
    rewrite E1. simpl.
    apply (new_cell_tail (mkState h s) (OSteal i dest) h1 k dest); simpl; auto.
    + apply (inv_alloc h1 s [] k 0 I1).
    + apply (updates_length _ _ U1).
    + eapply updates_posb; eauto.
    + apply (updates_evolves _ _ _ U1).
Qed.

Lemma all_referenced_posb : forall h base, posb base h -> all_referenced h base = true ->
  posb (length h) h.
Proof.
  intros h base P A x rc e k Hlt Hx. destruct (lt_dec x base).
  - eapply P; eauto.
  - unfold all_referenced in A. rewrite forallb_forall in A.
    assert (Hin : In (Live rc e k) (skipn base h)).
    { apply nth_error_In with (n := x - base). rewrite nth_skipn.
      replace (base + (x - base)) with x by lia. auto. }
    specialize (A _ Hin). destruct rc; [discriminate | lia].
Qed.

Lemma alloc_news_ok : forall news base h s, inv h s [] -> base <= length h -> posb base h ->
  match alloc_news base h news with
  | ROk h' => inv h' s [] /\ evolves None h h' /\ base <= length h' /\ posb base h'
  | RBad _ => True
  | _ => False
  end.
Proof.
  induction news as [|ks r IH]; intros base h s I Hb P; simpl.
  - split; [exact I|]. split; [apply evolves_refl|]. split; auto.
  - remember (map (resolve base) ks) as ids.
    destruct (forallb (live_b h) ids) eqn:Ef; auto.
    assert (Hl : forall c, In c ids -> live_at h c).
    { intros c Hc. rewrite forallb_forall in Ef. apply live_b_live. auto. }
    destruct (incref_all_ok ids h s [] I Hl) as (h1 & E1 & I1 & U1).
    rewrite E1. simpl.
    pose proof (inv_alloc h1 s [] ids 0 I1) as I2. simpl in I2.
    pose proof (updates_length _ _ U1) as L1.
    assert (Hb2 : base <= length (h1 ++ [Live 0 0 ids])) by (rewrite app_length; lia).
    assert (P2 : posb base (h1 ++ [Live 0 0 ids]))
      by (apply posb_app; [apply (updates_posb_below _ _ _ U1 P) | lia]).
    specialize (IH base _ s I2 Hb2 P2).
    destruct (alloc_news base (h1 ++ [Live 0 0 ids]) r) as [h'| | |]; auto.
    destruct IH as (I' & V' & B' & P'). split; auto. split; [|split; auto].
    eapply evolves_trans; [apply (updates_evolves _ _ _ U1)|].
    eapply evolves_trans; [apply evolves_app | exact V'].
Qed.

Lemma step_api : forall st i news root, wf st ->
  post st (OApi i news root) (step st (OApi i news root)).
Proof.
  intros [h s] i news root [I P]. simpl in *. unfold step, step_gen. simpl.
  pose proof (alloc_news_ok news (length h) h s I (le_n _) P) as HA.
  destruct (alloc_news (length h) h news) as [h1| | |]; simpl; auto; try contradiction.
  destruct HA as (I1 & V1 & B1 & P1).
  destruct (live_b h1 (resolve (length h) root)) eqn:El; simpl; auto.
  apply live_b_live in El.
  destruct (incref_ok h1 s [] _ I1 El) as (h2 & E2 & I2 & U2).
  rewrite E2. simpl.
  destruct (all_referenced h2 (length h)) eqn:Ea; simpl; auto.
  apply (assign_ok (mkState h s) (OApi i news root) h2 i); simpl; auto.
  - apply all_referenced_posb with (base := length h); [|exact Ea].
    apply (updates_posb_below _ _ _ U2 P1).
  - eapply evolves_trans; [exact V1 | apply (updates_evolves _ _ _ U2)].
Qed.

(* C40 rcp_no_uaf, one step: in a well-formed state no operation touches a freed object (or
   needs more fuel than the model provides), and the state stays well-formed *)
Theorem step_sound : forall st o, wf st -> post st o (step st o).
Proof.
  intros st o W. destruct o.
  - apply step_make; auto.
  - apply step_copy; auto.
  - apply step_move; auto.
  - apply step_movector; auto.
  - apply (step_reset_gen st (OReset i) i); auto.
  - apply (step_reset_gen st (ODrop i) i); auto.
  - apply step_fromthis; auto.
  - apply step_temp; auto.
  - apply step_steal; auto.
  - apply step_api; auto.
Qed.

Corollary step_ok : forall st o st', wf st -> step st o = ROk st' -> step_post st o st'.
Proof. intros st o st' W E. pose proof (step_sound st o W) as H. rewrite E in H. exact H. Qed.

(* a run keeps well-formedness, and with it every preorder on states that each step from a
   well-formed state respects *)
Theorem run_sound : forall R : state -> state -> Prop,
  (forall st, R st st) -> (forall a b c, R a b -> R b c -> R a c) ->
  (forall st o st', wf st -> step st o = ROk st' -> R st st') ->
  forall p st, wf st ->
  match run st p with ROk st' => wf st' /\ R st st' | RBad _ => True | _ => False end.
Proof.
  intros R Rrefl Rtrans Rstep. induction p as [|o r IH]; intros st W.
  - simpl. auto.
  - unfold run in *. simpl. pose proof (step_sound st o W) as H.
    pose proof (Rstep st o) as HR. unfold step in H, HR.
    destruct (step_gen steal_threshold st o) as [st1| | |]; simpl in *; auto.
    specialize (IH st1 (sp_wf _ _ _ H)).
    destruct (run_gen steal_threshold st1 r); auto.
    destruct IH. split; eauto.
Qed.

Lemma nth_repeat_none : forall n i (x : nat), nth_error (repeat (@None nat) n) i <> Some (Some x).
Proof.
  intros n i x H. apply nth_error_In in H. apply repeat_spec in H. discriminate.
Qed.

(* the objects that exist before the program: leaves, counted once per outside reference *)
Lemma init_cell : forall exts n x c, nth_error (heap (init_state exts n)) x = Some c ->
  exists e, nth_error exts x = Some e /\ c = Live e e [].
Proof.
  intros exts n x c H. simpl in H. rewrite nth_error_map in H.
  destruct (nth_error exts x) as [e|]; inversion H. eauto.
Qed.

Lemma init_wf : forall exts n, Forall (fun e => 1 <= e) exts -> wf (init_state exts n).
Proof.
  intros exts n F. split; [constructor|]; simpl.
  - intros i id H. exfalso. eapply nth_repeat_none; eauto.
  - intros id rc e k H c Hc. destruct (init_cell exts n _ _ H) as (e0 & _ & E). inversion E; subst.
    destruct Hc.
  - intros id [].
  - intros id rc e k H. destruct (init_cell exts n _ _ H) as (e0 & _ & E). inversion E; subst.
    rewrite slot_refs_zero by (intros i Hi; eapply nth_repeat_none; eauto).
    rewrite kid_refs_zero. simpl. lia.
    intros p rc1 e1 k1 Hp Hin. destruct (init_cell exts n _ _ Hp) as (e2 & _ & E2). inversion E2; subst.
    destruct Hin.
  - intros id rc e k _ H. destruct (init_cell exts n _ _ H) as (e0 & Hin & E). inversion E; subst.
    rewrite Forall_forall in F. eapply F, nth_error_In; eauto.
Qed.

(* C40 rcp_no_uaf: no handle program, however long, ever touches a freed object *)
Theorem rcp_no_uaf : forall exts n p, Forall (fun e => 1 <= e) exts ->
  match run (init_state exts n) p with
  | ROk st' => wf st'
  | RBad _ => True
  | RUaf _ => False
  | RFuel => False
  end.
Proof.
  intros exts n p F.
  pose proof (run_sound (fun _ _ => True) (fun _ => I) (fun _ _ _ _ _ => I) (fun _ _ _ _ _ => I)
                p _ (init_wf exts n F)) as H.
  destruct (run (init_state exts n) p); tauto.
Qed.
