(* C20 obligation: load_rcp_basic consumes input: whenever a node is decoded the remaining input
   is strictly shorter (so nested and repeated nodes cannot loop), for every fuel larger than the
   input, every expected class T, every id table. *)
From SE Require Import Codec.CodecModel Codec.CodecTotal.
Theorem C20_decode_progress :
  forall (sw : bool) (f : nat) (T : tclass) (bs : list N) (tbl : list (N * wtree)),
    (length bs < f)%nat ->
    fine (dec_node f sw T (bs, tbl)) /\
    forall w bs' tbl', dec_node f sw T (bs, tbl) = Ok (w, (bs', tbl')) -> (length bs' < length bs)%nat.
Proof.
  intros sw f T bs tbl L. destruct (dec_node_total sw f T bs tbl L) as [F P].
  split; [exact F|]. intros w bs' tbl' E. exact (P _ E).
Qed.
Print Assumptions C20_decode_progress.
