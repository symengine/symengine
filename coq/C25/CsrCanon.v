(* C25 -- csr_has_sorted_indices, csr_has_duplicates, csr_has_canonical_format and
   CSRMatrix::is_canonical decide the canonical-format predicate [canon]. *)
From SE Require Export C25.CsrBase.
Local Open Scope N_scope.
Local Open Scope res_scope.

Lemma for_range_all (test : N -> res bool) (Q : N -> Prop) a b : a <= b ->
  (forall i, a <= i -> i < b -> exists r, test i = Ok r /\ (r = true <-> Q i)) ->
  exists r, for_range a b (fun i (ok : bool) => if ok then test i else Ok false) true = Ok r /\
            (r = true <-> forall i, a <= i -> i < b -> Q i).
Proof.
  intros Hab Ht.
  destruct (for_range_inv (fun l (ok : bool) => ok = true <-> forall i, a <= i -> i < l -> Q i)
              (fun i (ok : bool) => if ok then test i else Ok false) a b true) as (r & Hr & Hp).
  - assumption.
  - split; [intros; lia|reflexivity].
  - intros k s K1 K2 Hs. destruct s.
    + destruct (Ht k K1 K2) as (r & Hr & Hq). exists r. split; [assumption|].
      rewrite Hq. split.
      * intros Hk i I1 I2. destruct (N.eq_dec i k) as [->|]; [assumption|]. apply Hs; [reflexivity|lia|lia].
      * intros H. apply H; lia.
    + exists false. split; [reflexivity|]. split; [discriminate|].
      intros H. apply Hs. intros i I1 I2. apply H; lia.
  - exists r. auto.
Qed.

Lemma for_range_any (test : N -> res bool) (Q : N -> Prop) a b : a <= b ->
  (forall i, a <= i -> i < b -> exists r, test i = Ok r /\ (r = true <-> Q i)) ->
  exists r, for_range a b (fun i (found : bool) => if found then Ok true else test i) false = Ok r /\
            (r = true <-> exists i, a <= i /\ i < b /\ Q i).
Proof.
  intros Hab Ht.
  destruct (for_range_inv (fun l (fd : bool) => fd = true <-> exists i, a <= i /\ i < l /\ Q i)
              (fun i (found : bool) => if found then Ok true else test i) a b false) as (r & Hr & Hp).
  - assumption.
  - split; [discriminate|]. intros (i & I1 & I2 & _). lia.
  - intros k s K1 K2 Hs. destruct s.
    + exists true. split; [reflexivity|]. split; [|reflexivity].
      intros _. destruct Hs as (Hs & _). destruct (Hs eq_refl) as (i & I1 & I2 & I3).
      exists i. repeat split; try assumption; lia.
    + destruct (Ht k K1 K2) as (r & Hr & Hq). exists r. split; [assumption|].
      rewrite Hq. split.
      * intros Hk. exists k. repeat split; try assumption; lia.
      * intros (i & I1 & I2 & I3). destruct (N.eq_dec i k) as [->|]; [assumption|].
        destruct Hs as (_ & Hs). discriminate Hs. exists i. repeat split; try assumption; lia.
  - exists r. auto.
Qed.

Lemma sorted_loop_spec (j : list N) pe : pe <= lenN j -> lenN j < 2 ^ 31 ->
  forall fuel jj, (N.to_nat (pe - jj) < fuel)%nat -> jj <= pe ->
  exists r, sorted_loop fuel j jj pe = Ok r /\
            (r = true <-> forall t, jj <= t -> t + 1 < pe -> nthN j t 0 <= nthN j (t + 1) 0).
Proof.
  intros Hpe Hs. induction fuel; intros jj Hf Hjj; [lia|].
  cbn [sorted_loop]. rewrite uadd_small by lia.
  destruct (N.ltb_spec (jj + 1) pe) as [Hlt|Hge].
  - rewrite (getN_ok j jj 0) by lia. cbn [bind].
    rewrite (getN_ok j (jj + 1) 0) by lia. cbn [bind].
    destruct (N.ltb_spec (nthN j (jj + 1) 0) (nthN j jj 0)) as [Hb|Hb].
    + exists false. split; [reflexivity|]. split; [discriminate|].
      intros H. specialize (H jj ltac:(lia) Hlt). lia.
    + destruct (IHfuel (jj + 1) ltac:(lia) ltac:(lia)) as (r & Hr & Hq). exists r. split; [assumption|].
      rewrite Hq. split.
      * intros H t T1 T2. destruct (N.eq_dec t jj) as [->|]; [assumption|]. apply H; lia.
      * intros H t T1 T2. apply H; lia.
  - exists true. split; [reflexivity|]. split; [|reflexivity]. intros _ t T1 T2. lia.
Qed.

Lemma dup_loop_spec (j : list N) pe : pe <= lenN j -> lenN j < 2 ^ 31 ->
  forall fuel jj, (N.to_nat (pe - jj) < fuel)%nat -> jj <= pe ->
  exists r, dup_loop fuel j jj pe = Ok r /\
            (r = true <-> exists t, jj <= t /\ t + 1 < pe /\ nthN j t 0 = nthN j (t + 1) 0).
Proof.
  intros Hpe Hs. induction fuel; intros jj Hf Hjj; [lia|].
  cbn [dup_loop]. rewrite uadd_small by lia.
  destruct (N.ltb_spec (jj + 1) pe) as [Hlt|Hge].
  - rewrite (getN_ok j jj 0) by lia. cbn [bind].
    rewrite (getN_ok j (jj + 1) 0) by lia. cbn [bind].
    destruct (N.eqb_spec (nthN j jj 0) (nthN j (jj + 1) 0)) as [Hb|Hb].
    + exists true. split; [reflexivity|]. split; [|reflexivity].
      intros _. exists jj. repeat split; try assumption; lia.
    + destruct (IHfuel (jj + 1) ltac:(lia) ltac:(lia)) as (r & Hr & Hq). exists r. split; [assumption|].
      rewrite Hq. split.
      * intros (t & T1 & T2 & T3). exists t. repeat split; try assumption; lia.
      * intros (t & T1 & T2 & T3). destruct (N.eq_dec t jj) as [->|]; [contradiction|].
        exists t. repeat split; try assumption; lia.
  - exists false. split; [reflexivity|]. split; [discriminate|]. intros (t & T1 & T2 & T3). lia.
Qed.

(* the three checkers on arrays with monotone row pointers *)
Section Arrays.
Variables (p j : list N) (row : N).
Hypothesis Hlen : lenN p = row + 1.
Hypothesis Hrow : row < 2 ^ 31.
Hypothesis Hj : lenN j < 2 ^ 31.

Definition mono_p : Prop := forall i, i < row -> nthN p i 0 <= nthN p (i + 1) 0.
Definition adj_sorted : Prop :=
  forall i, i < row -> forall t, nthN p i 0 <= t -> t + 1 < nthN p (i + 1) 0 -> nthN j t 0 <= nthN j (t + 1) 0.
Definition adj_dup : Prop :=
  exists i, i < row /\ exists t, nthN p i 0 <= t /\ t + 1 < nthN p (i + 1) 0 /\ nthN j t 0 = nthN j (t + 1) 0.

Lemma p_monotone_spec : exists r, p_monotone p row = Ok r /\ (r = true <-> mono_p).
Proof.
  unfold p_monotone.
  destruct (for_range_all
    (fun i => do a <- getN p i; do b <- getN p (uadd i 1); Ok (negb (b <? a)))
    (fun i => nthN p i 0 <= nthN p (i + 1) 0) 0 row) as (r & Hr & Hq).
  - lia.
  - intros i _ Hi. rewrite (getN_ok p i 0) by lia. cbn [bind]. rewrite uadd_small by lia.
    rewrite (getN_ok p (i + 1) 0) by lia. cbn [bind].
    eexists; split; [reflexivity|].
    destruct (N.ltb_spec (nthN p (i + 1) 0) (nthN p i 0)); cbn [negb]; split; intros; try lia; try discriminate; reflexivity.
  - exists r. split; [assumption|]. rewrite Hq. unfold mono_p. split; intros H i; [intros; apply H; lia|intros _; apply H].
Qed.

Hypothesis Hmono : mono_p.
Hypothesis Hnnz : nthN p row 0 <= lenN j.

Lemma p_le (i : N) : i <= row -> nthN p i 0 <= lenN j.
Proof. intros Hi. pose proof (mono_le p row Hmono row i Hi). lia. Qed.

Lemma has_sorted_indices_spec : exists r, has_sorted_indices p j row = Ok r /\ (r = true <-> adj_sorted).
Proof.
  unfold has_sorted_indices.
  destruct (for_range_all
    (fun i => do ps <- getN p i; do pe <- getN p (uadd i 1); sorted_loop (S (N.to_nat (pe - ps))) j ps pe)
    (fun i => forall t, nthN p i 0 <= t -> t + 1 < nthN p (i + 1) 0 -> nthN j t 0 <= nthN j (t + 1) 0)
    0 row) as (r & Hr & Hq).
  - lia.
  - intros i _ Hi. rewrite (getN_ok p i 0) by lia. cbn [bind]. rewrite uadd_small by lia.
    rewrite (getN_ok p (i + 1) 0) by lia. cbn [bind].
    apply sorted_loop_spec; [apply p_le; lia|assumption|lia|apply Hmono; lia].
  - exists r. split; [assumption|]. rewrite Hq. unfold adj_sorted.
    split; intros H i.
    + intros Hi t T1 T2. apply (H i); [lia|assumption|assumption|assumption].
    + intros _ Hi. apply H; assumption.
Qed.

Lemma has_duplicates_spec : exists r, has_duplicates p j row = Ok r /\ (r = true <-> adj_dup).
Proof.
  unfold has_duplicates.
  destruct (for_range_any
    (fun i => do ps <- getN p i; do pe <- getN p (uadd i 1); dup_loop (S (N.to_nat (pe - ps))) j ps pe)
    (fun i => exists t, nthN p i 0 <= t /\ t + 1 < nthN p (i + 1) 0 /\ nthN j t 0 = nthN j (t + 1) 0)
    0 row) as (r & Hr & Hq).
  - lia.
  - intros i _ Hi. rewrite (getN_ok p i 0) by lia. cbn [bind]. rewrite uadd_small by lia.
    rewrite (getN_ok p (i + 1) 0) by lia. cbn [bind].
    apply dup_loop_spec; [apply p_le; lia|assumption|lia|apply Hmono; lia].
  - exists r. split; [assumption|]. rewrite Hq. unfold adj_dup.
    split; intros (i & I1 & I2); exists i; [tauto|]. split; [lia|]. tauto.
Qed.

End Arrays.

Section Canon.
Context {E : Type}.
Variable Ops : eops E.
Notation mat := (csr E).

(* adjacent strictly increasing = pairwise strictly increasing *)
Lemma adjacent_strict_sorted (m : mat) i :
  (forall t, pN m i <= t -> t + 1 < pN m (i + 1) -> nthN (cj m) t 0 < nthN (cj m) (t + 1) 0) ->
  row_sorted m i.
Proof.
  intros H a b A1 A2 A3.
  assert (G : forall d, a + N.of_nat d + 1 < pN m (i + 1) -> nthN (cj m) a 0 < nthN (cj m) (a + N.of_nat d + 1) 0).
  { induction d; intros Hd.
    - replace (a + N.of_nat 0) with a by lia. apply H; lia.
    - specialize (IHd ltac:(lia)). specialize (H (a + N.of_nat d + 1) ltac:(lia) ltac:(lia)).
      replace (a + N.of_nat (S d) + 1) with (a + N.of_nat d + 1 + 1) by lia. lia. }
  specialize (G (N.to_nat (b - a - 1))). replace (a + N.of_nat (N.to_nat (b - a - 1)) + 1) with b in G by lia.
  apply G; lia.
Qed.

(* csr_has_canonical_format decides: monotone row pointers and strictly increasing rows *)
Theorem has_canonical_format_spec (m : mat) :
  lenN (cp m) = crow m + 1 -> crow m < 2 ^ 31 -> lenN (cj m) < 2 ^ 31 -> pN m (crow m) = lenN (cj m) ->
  exists r, has_canonical_format (cp m) (cj m) (crow m) = Ok r /\
    (r = true <-> ((forall i, i < crow m -> pN m i <= pN m (i + 1)) /\ forall i, i < crow m -> row_sorted m i)).
Proof.
  intros Hlen Hrow Hj Hn. unfold has_canonical_format.
  destruct (p_monotone_spec (cp m) (cj m) (crow m) Hlen Hrow Hj) as (r1 & Hr1 & Hq1). rewrite Hr1. cbn [bind].
  destruct r1.
  - assert (Hmono : mono_p (cp m) (crow m)) by (apply Hq1; reflexivity).
    assert (Hnn : nthN (cp m) (crow m) 0 <= lenN (cj m)) by (unfold pN in Hn; lia).
    destruct (has_sorted_indices_spec (cp m) (cj m) (crow m) Hlen Hrow Hj Hmono Hnn) as (r2 & Hr2 & Hq2).
    rewrite Hr2. cbn [bind]. destruct r2.
    + destruct (has_duplicates_spec (cp m) (cj m) (crow m) Hlen Hrow Hj Hmono Hnn) as (r3 & Hr3 & Hq3).
      rewrite Hr3. cbn [bind]. eexists; split; [reflexivity|].
      assert (Hsort : adj_sorted (cp m) (cj m) (crow m)) by (apply Hq2; reflexivity).
      destruct r3; cbn [negb].
      * split; [discriminate|]. intros (_ & Hs). exfalso.
        destruct Hq3 as (Hq3 & _). destruct (Hq3 eq_refl) as (i & Hi & t & T1 & T2 & T3).
        specialize (Hs i Hi t (t + 1)). unfold pN in Hs. lia.
      * split; [|reflexivity]. intros _. split; [exact Hmono|].
        intros i Hi. apply adjacent_strict_sorted. intros t T1 T2.
        specialize (Hsort i Hi t T1 T2).
        destruct (N.eq_dec (nthN (cj m) t 0) (nthN (cj m) (t + 1) 0)) as [Heq|]; [|lia].
        exfalso. destruct Hq3 as (_ & Hq3). discriminate Hq3.
        exists i. split; [assumption|]. exists t. auto.
    + eexists; split; [reflexivity|]. split; [discriminate|]. intros (_ & Hs). exfalso.
      destruct Hq2 as (_ & Hq2). discriminate Hq2.
      intros i Hi t T1 T2. specialize (Hs i Hi t (t + 1)). unfold pN in Hs. lia.
  - eexists; split; [reflexivity|]. split; [discriminate|]. intros (Hm & _). exfalso.
    destruct Hq1 as (_ & Hq1). discriminate Hq1. exact Hm.
Qed.

(* CSRMatrix::is_canonical always answers on arrays of bounded size, and decides [canon]: it checks
   the sizes, p_[0] = 0, the row pointers and the rows *)
Theorem is_canonical_spec (m : mat) :
  crow m < 2 ^ 31 -> lenN (cj m) < 2 ^ 31 ->
  exists r, is_canonical m = Ok r /\ (r = true <-> canon m).
Proof.
  intros Hrow Hj. unfold is_canonical, canon, wf. rewrite uadd_small by lia.
  assert (No : forall P : Prop, ~ P -> exists r, Ok false = Ok r /\ (r = true <-> P)).
  { intros P HP. exists false. split; [reflexivity|]. split; [discriminate|]. intros H. destruct (HP H). }
  destruct (N.eqb_spec (lenN (cp m)) (crow m + 1)) as [Hlen|Hlen]; cbn [negb]; [|apply No; tauto].
  rewrite (getN_ok (cp m) 0 0) by lia. cbn [bind]. fold (pN m 0).
  destruct (N.eqb_spec (pN m 0) 0) as [H0|H0]; cbn [negb]; [|apply No; tauto].
  rewrite (getN_ok (cp m) (crow m) 0) by lia. cbn [bind]. fold (pN m (crow m)).
  destruct (N.eqb_spec (lenN (cj m)) (pN m (crow m))) as [Hn|Hn]; cbn [negb orb];
    [|apply No; intros ((_ & _ & _ & W4 & _) & _); congruence].
  destruct (N.eqb_spec (lenN (cx m)) (pN m (crow m))) as [Hx|Hx]; cbn [negb];
    [|apply No; intros ((_ & _ & _ & W4 & W5) & _); congruence].
  destruct (has_canonical_format_spec m Hlen Hrow Hj ltac:(lia)) as (r & Hr & Hq).
  exists r. split; [exact Hr|]. rewrite Hq. split.
  - intros (Hm & Hs). repeat split; try assumption; lia.
  - intros ((_ & _ & Hm & _) & Hs). split; assumption.
Qed.

Theorem is_canonical_complete (m : mat) :
  canon m -> crow m < 2 ^ 31 -> lenN (cj m) < 2 ^ 31 -> is_canonical m = Ok true.
Proof.
  intros Hc Hrow Hj. destruct (is_canonical_spec m Hrow Hj) as (r & -> & Hq). f_equal. apply Hq, Hc.
Qed.

Theorem is_canonical_sound (m : mat) :
  is_canonical m = Ok true -> crow m < 2 ^ 31 -> lenN (cj m) < 2 ^ 31 -> canon m.
Proof.
  intros H Hrow Hj. destruct (is_canonical_spec m Hrow Hj) as (r & Hr & Hq).
  rewrite Hr in H. injection H as ->. apply Hq. reflexivity.
Qed.

End Canon.
