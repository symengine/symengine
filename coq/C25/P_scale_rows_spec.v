(* C25 obligation: csr_scale_rows with non-zero factors: same pattern, canonical, every entry multiplied by its row's factor. *)
From SE Require Import C25.CsrMisc.
Local Open Scope N_scope.
Theorem C25_scale_rows_spec :
  forall (E : Type) (Ops : eops E) (A : csr E) (X : list E),
    (forall a : E, emul Ops (ezero Ops) a = ezero Ops) ->
    Inv A -> lenN X = crow A ->
    (forall i : N, i < crow A -> eis_zero Ops (nthN X i (ezero Ops)) = false) ->
    exists R : csr E,
      scale_rows Ops A X = Ok R /\ Inv R /\ crow R = crow A /\ ccol R = ccol A /\ cp R = cp A /\ cj R = cj A /\
      (forall i c : N, i < crow A -> entry Ops R i c = emul Ops (entry Ops A i c) (nthN X i (ezero Ops))).
Proof. exact @scale_rows_spec. Qed.
Print Assumptions C25_scale_rows_spec.
