(* C25 obligation: CSRMatrix::set (search, insertion, replacement, deletion with row-pointer updates) keeps the canonical-format invariant and performs exactly the dense update. *)
From SE Require Import C25.CsrSet.
Local Open Scope N_scope.
Theorem C25_set_spec :
  forall (E : Type) (Ops : eops E) (m : csr E) (i c : N) (e : E),
    zero_test_sound Ops -> Inv m -> i < crow m -> c < ccol m ->
    exists m' : csr E,
      set Ops m i c e = Ok m' /\ Inv m' /\ crow m' = crow m /\ ccol m' = ccol m /\
      (forall i' c' : N, i' < crow m -> entry Ops m' i' c' = upd (entry Ops m) i c e i' c').
Proof. exact @set_spec. Qed.
Print Assumptions C25_set_spec.
