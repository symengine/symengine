(* C25 -- csr_scale_rows, csr_scale_columns, CSRMatrix::conjugate, csr_diagonal. *)
From SE Require Export C25.CsrProofs.
Local Open Scope N_scope.
Local Open Scope res_scope.

Section Misc.
Context {E : Type}.
Variable Ops : eops E.
Notation mat := (csr E).
Notation entry := (entry Ops).
Notation Inv := (Inv (E:=E)).

(* replacing the values only: same pattern, hence same canonical format *)
Lemma same_pattern_Inv (m : mat) (xs : list E) : Inv m -> lenN xs = lenN (cx m) ->
  Inv (Build_csr (cp m) (cj m) xs (crow m) (ccol m)).
Proof.
  intros ((Hwf & Hs) & Hc & Hd) Hl. destruct Hwf as (W1 & W2 & W3 & W4 & W5).
  split; [split|split]; try assumption.
  unfold wf, pN in *; cbn [cp cj cx crow ccol]. repeat split; try assumption. lia.
Qed.

(* ... and every row is the old one with the values rewritten *)
Lemma same_pattern_row (m : mat) (xs : list E) (g : N -> E -> E) i :
  (forall k, pN m i <= k -> k < pN m (i + 1) -> nthN xs k (ezero Ops) = g (nthN (cj m) k 0) (nthN (cx m) k (ezero Ops))) ->
  row_of Ops (Build_csr (cp m) (cj m) xs (crow m) (ccol m)) i =
  map (fun e => (fst e, g (fst e) (snd e))) (row_of Ops m i).
Proof.
  intros Hx. unfold row_of, pN in *. cbn [cp cj cx]. rewrite map_map. cbn [fst snd].
  apply map_ext_in. intros k Hk. apply in_Nseq in Hk. rewrite Hx by lia. reflexivity.
Qed.

Lemma same_pattern_entry (m : mat) (xs : list E) (g : N -> E -> E) i c :
  (forall k, pN m i <= k -> k < pN m (i + 1) -> nthN xs k (ezero Ops) = g (nthN (cj m) k 0) (nthN (cx m) k (ezero Ops))) ->
  g c (ezero Ops) = ezero Ops ->
  entry (Build_csr (cp m) (cj m) xs (crow m) (ccol m)) i c = g c (entry m i c).
Proof.
  intros Hx Hg. unfold CsrSpec.entry. rewrite (same_pattern_row m xs g i Hx). apply lookup_map, Hg.
Qed.

(* one row of csr_scale_rows, as the model writes it *)
Definition scale_row (A : mat) (X : list E) (i : N) (xs : list E) : res (list E) :=
  do s <- getN X i;
  if eis_zero Ops s then ErrExn EXN_SYMENGINE
  else
    do a <- getN (cp A) i;
    do b <- getN (cp A) (uadd i 1);
    for_range a b (fun jj xs => do v <- getN xs jj; setN xs jj (emul Ops v s)) xs.

Lemma scale_rows_eq (A : mat) (X : list E) :
  scale_rows Ops A X =
  do x' <- for_range 0 (crow A) (scale_row A X) (cx A); Ok (Build_csr (cp A) (cj A) x' (crow A) (ccol A)).
Proof. reflexivity. Qed.

Lemma scale_row_ok (A : mat) (X : list E) i xs :
  Inv A -> lenN X = crow A -> i < crow A -> eis_zero Ops (nthN X i (ezero Ops)) = false ->
  lenN xs = lenN (cx A) ->
  exists ys, scale_row A X i xs = Ok ys /\ lenN ys = lenN xs /\
    (forall k, pN A i <= k -> k < pN A (i + 1) ->
       nthN ys k (ezero Ops) = emul Ops (nthN xs k (ezero Ops)) (nthN X i (ezero Ops))) /\
    (forall k, k < pN A i \/ pN A (i + 1) <= k -> nthN ys k (ezero Ops) = nthN xs k (ezero Ops)).
Proof.
  intros HA HX Hi Hnz Hl.
  destruct (Inv_facts Ops A HA) as (WA & SA & CA & DA & A1 & A2 & LxA & LpA & PnA).
  unfold scale_row. rewrite (getN_ok X i (ezero Ops)) by lia. cbn [bind]. rewrite Hnz.
  rewrite (getN_p A i WA) by lia. cbn [bind]. rewrite uadd_small by lia.
  rewrite (getN_p A (i + 1) WA) by lia. cbn [bind].
  pose proof (pN_le_nnz A WA (i + 1) ltac:(lia)). assert (pN A i <= pN A (i + 1)) by (apply WA; lia).
  apply (rewrite_loop (fun _ v => emul Ops v (nthN X i (ezero Ops))) (ezero Ops)); [lia|lia|].
  intros jj ys J1 J2 Ly. rewrite (getN_ok ys jj (ezero Ops)) by lia. reflexivity.
Qed.

Theorem scale_rows_spec (A : mat) (X : list E) :
  (forall a, emul Ops (ezero Ops) a = ezero Ops) ->
  Inv A -> lenN X = crow A ->
  (forall i, i < crow A -> eis_zero Ops (nthN X i (ezero Ops)) = false) ->
  exists R, scale_rows Ops A X = Ok R /\ Inv R /\ crow R = crow A /\ ccol R = ccol A /\
    cp R = cp A /\ cj R = cj A /\
    forall i c, i < crow A -> entry R i c = emul Ops (entry A i c) (nthN X i (ezero Ops)).
Proof.
  intros Hm0 HA HX Hnz.
  destruct (Inv_facts Ops A HA) as (WA & SA & CA & DA & A1 & A2 & LxA & LpA & PnA).
  rewrite scale_rows_eq.
  (* after rows 0 .. i-1 the stored positions below p[i] are scaled by their row's factor *)
  destruct (for_range_inv (fun i (xs : list E) => lenN xs = lenN (cx A) /\
       forall i' k, i' < crow A -> pN A i' <= k -> k < pN A (i' + 1) ->
         nthN xs k (ezero Ops) = if k <? pN A i then emul Ops (nthN (cx A) k (ezero Ops)) (nthN X i' (ezero Ops))
                                 else nthN (cx A) k (ezero Ops))
      (scale_row A X) 0 (crow A) (cx A)) as (xs & Hrun & Hl & Hv).
  - lia.
  - rewrite (proj1 (proj2 WA)). split; [reflexivity|]. intros i k _ _ _. destruct (N.ltb_spec k 0); [lia|reflexivity].
  - intros i xs I1 I2 (Ql & Qv).
    destruct (scale_row_ok A X i xs HA HX I2 (Hnz i I2) Ql) as (ys & Hr & Rl & Rin & Rout).
    exists ys. split; [exact Hr|]. split; [lia|].
    assert (pN A i <= pN A (i + 1)) by (apply WA; lia).
    intros i' k H1 H2 H3. generalize (Qv i' k H1 H2 H3).
    destruct (N.ltb_spec k (pN A i)) as [Hlo|Hge], (N.ltb_spec k (pN A (i + 1))) as [Hin|Hout]; try lia; intros Qk.
    + rewrite Rout by lia. exact Qk.
    + assert (i' = i) by (eapply row_unique; eauto). subst i'. rewrite Rin, Qk by lia. reflexivity.
    + rewrite Rout by lia. exact Qk.
  - rewrite Hrun. cbn [bind]. eexists; split; [reflexivity|].
    split; [apply same_pattern_Inv; assumption|].
    repeat split.
    intros i c Hi.
    rewrite (same_pattern_entry A xs (fun _ v => emul Ops v (nthN X i (ezero Ops))) i c).
    + reflexivity.
    + intros k K1 K2. rewrite (Hv i k Hi K1 K2).
      pose proof (pN_mono A WA (crow A) (i + 1) ltac:(lia) ltac:(lia)).
      destruct (N.ltb_spec k (pN A (crow A))); [reflexivity|lia].
    + apply Hm0.
Qed.

(* a zero scaling factor makes csr_scale_rows throw *)
Theorem scale_rows_zero (A : mat) (X : list E) i0 :
  Inv A -> lenN X = crow A -> i0 < crow A -> eis_zero Ops (nthN X i0 (ezero Ops)) = true ->
  (forall i, i < i0 -> eis_zero Ops (nthN X i (ezero Ops)) = false) ->
  scale_rows Ops A X = ErrExn EXN_SYMENGINE.
Proof.
  intros HA HX Hi0 Hz Hnz. rewrite scale_rows_eq.
  rewrite (for_range_fails (fun _ (xs : list E) => lenN xs = lenN (cx A)) (scale_row A X) (ErrExn EXN_SYMENGINE) 0 (crow A) i0);
    [reflexivity|discriminate|lia|exact Hi0|reflexivity| |].
  - intros i xs _ I2 Ql. destruct (scale_row_ok A X i xs HA HX ltac:(lia) (Hnz i I2) Ql) as (ys & Hr & Rl & _).
    exists ys. split; [exact Hr|lia].
  - intros xs _. unfold scale_row. rewrite (getN_ok X i0 (ezero Ops)) by lia. cbn [bind]. rewrite Hz. reflexivity.
Qed.

Theorem scale_columns_spec (A : mat) (X : list E) :
  (forall a, emul Ops (ezero Ops) a = ezero Ops) ->
  Inv A -> lenN X = ccol A ->
  (forall c, c < ccol A -> eis_zero Ops (nthN X c (ezero Ops)) = false) ->
  exists R, scale_columns Ops A X = Ok R /\ Inv R /\ crow R = crow A /\ ccol R = ccol A /\
    cp R = cp A /\ cj R = cj A /\
    forall i c, i < crow A -> entry R i c = emul Ops (entry A i c) (nthN X c (ezero Ops)).
Proof.
  intros Hm0 HA HX Hnz.
  destruct (Inv_facts Ops A HA) as (WA & SA & CA & DA & A1 & A2 & LxA & LpA & PnA).
  unfold scale_columns.
  rewrite (getN_p A (crow A) WA) by lia. cbn [bind].
  destruct (for_range_inv (fun _ (_ : unit) => True)
    (fun i (u : unit) => do s <- getN X i; if eis_zero Ops s then ErrExn EXN_SYMENGINE else Ok tt)
    0 (ccol A) tt) as (u & Hu & _).
  - lia.
  - exact I.
  - intros c u C1 C2 _. rewrite (getN_ok X c (ezero Ops)) by lia. cbn [bind]. rewrite Hnz by assumption.
    exists tt. auto.
  - rewrite Hu. cbn [bind].
    destruct (rewrite_loop (fun k v => emul Ops v (nthN X (nthN (cj A) k 0) (ezero Ops))) (ezero Ops)
      0 (pN A (crow A)) (cx A)
      (fun i xs => do v <- getN xs i; do c <- getN (cj A) i; do s <- getN X c; setN xs i (emul Ops v s)))
      as (xs & Hrun & Hl & Hv & _); [lia|lia| |].
    + intros i ys I1 I2 Ly.
      rewrite (getN_ok ys i (ezero Ops)) by lia. cbn [bind].
      rewrite (getN_ok (cj A) i 0) by lia. cbn [bind].
      rewrite (getN_ok X (nthN (cj A) i 0) (ezero Ops)) by (rewrite HX; apply CA; lia). reflexivity.
    + rewrite Hrun. cbn [bind]. eexists; split; [reflexivity|].
      split; [apply same_pattern_Inv; assumption|].
      repeat split.
      intros i c Hi.
      rewrite (same_pattern_entry A xs (fun c v => emul Ops v (nthN X c (ezero Ops))) i c).
      * reflexivity.
      * intros k K1 K2. pose proof (pN_mono A WA (crow A) (i + 1) ltac:(lia) ltac:(lia)). apply Hv; lia.
      * apply Hm0.
Qed.

Theorem conjugate_entries (m : mat) i c : conj_zero Ops -> canon m -> i < crow m ->
  entry (conjugate Ops m) i c = econj Ops (entry m i c).
Proof.
  intros Hc0 (Hwf & _) Hi. pose proof (pN_le_nnz m Hwf (i + 1) ltac:(lia)).
  assert (Lx : lenN (cx m) = lenN (cj m)) by apply Hwf.
  apply (same_pattern_entry m (map (econj Ops) (cx m)) (fun _ => econj Ops) i c); [|exact Hc0].
  intros k K1 K2. unfold nthN.
  rewrite (nth_indep _ (ezero Ops) (econj Ops (ezero Ops))) by (rewrite map_length; unfold lenN in *; lia).
  apply map_nth.
Qed.

(* any shape: canonical, same dimensions, conjugated entries *)
Theorem conjugate_spec (m : mat) : conj_zero Ops -> Inv m ->
  Inv (conjugate Ops m) /\ crow (conjugate Ops m) = crow m /\ ccol (conjugate Ops m) = ccol m /\
  forall i c, i < crow m -> entry (conjugate Ops m) i c = econj Ops (entry m i c).
Proof.
  intros Hc0 HI. pose proof HI as ((Hwf & Hs) & Hc & Hd).
  split; [|split; [reflexivity|split; [reflexivity|]]].
  - destruct Hwf as (W1 & W2 & W3 & W4 & W5).
    unfold conjugate. split; [split|split].
    + unfold wf, pN in *; cbn [cp cj cx crow ccol]. repeat split; try assumption.
      rewrite lenN_map. assumption.
    + exact Hs.
    + exact Hc.
    + exact Hd.
  - intros i c Hi. apply conjugate_entries; [assumption|split; assumption|assumption].
Qed.

(* the repaired search is the binary search of CSRMatrix::get *)
Lemma diag_loop_get_loop (A : mat) i : forall fuel rs re,
  diag_loop Ops fuel A i rs re = get_loop Ops fuel (cj A) (cx A) i rs re.
Proof.
  induction fuel; intros rs re; [reflexivity|].
  cbn [diag_loop get_loop]. destruct (rs <? re); [|reflexivity].
  destruct (getN (cj A) (uadd rs re / 2)); cbn [bind]; try reflexivity.
  destruct (a =? i); [reflexivity|]. destruct (a <? i); apply IHfuel.
Qed.

Theorem diagonal_spec (A : mat) : Inv A ->
  diagonal Ops A = Ok (map (fun i => entry A i i) (Nseq 0 (N.to_nat (N.min (crow A) (ccol A))))).
Proof.
  intros HA.
  destruct (Inv_facts Ops A HA) as (WA & SA & CA & DA & A1 & A2 & LxA & LpA & PnA).
  unfold diagonal.
  destruct (for_range_acc1 (fun L (acc : list E) => acc = rev L) (fun i => entry A i i)
    (fun i acc =>
      do rs <- getN (cp A) i;
      do re <- getN (cp A) (uadd i 1);
      do d <- diag_loop Ops (S (N.to_nat (re - rs))) A i rs re;
      Ok (d :: acc))
    0 (N.min (crow A) (ccol A)) [] []) as (acc & Hrun & Hacc).
  - lia.
  - reflexivity.
  - intros i L acc I1 I2 ->.
    rewrite (getN_p A i WA) by lia. cbn [bind]. rewrite uadd_small by lia.
    rewrite (getN_p A (i + 1) WA) by lia. cbn [bind].
    rewrite diag_loop_get_loop.
    rewrite (get_loop_spec Ops A i i WA ltac:(lia) (SA i ltac:(lia)) A1) by (try lia; intros; lia).
    cbn [bind]. eexists; split; [reflexivity|]. rewrite rev_app_distr. reflexivity.
  - rewrite Hrun. cbn [bind]. rewrite Hacc, rev_involutive, N.sub_0_r. reflexivity.
Qed.

End Misc.
