(* C25 obligation: csr_diagonal on every canonical matrix of bounded size: succeeds (no out-of-range access) and returns the diagonal of the dense matrix. *)
From SE Require Import C25.CsrMisc.
Local Open Scope N_scope.
Theorem C25_diagonal_spec :
  forall (E : Type) (Ops : eops E) (A : csr E),
    Inv A ->
    diagonal Ops A = Ok (map (fun i : N => entry Ops A i i) (Nseq 0 (N.to_nat (N.min (crow A) (ccol A))))).
Proof. exact @diagonal_spec. Qed.
Print Assumptions C25_diagonal_spec.
