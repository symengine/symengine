(* C25 obligation: CSRMatrix::conjugate, any shape: canonical result of the same dimensions with conjugated entries. *)
From SE Require Import C25.CsrMisc.
Local Open Scope N_scope.
Theorem C25_conjugate_spec :
  forall (E : Type) (Ops : eops E) (m : csr E),
    conj_zero Ops -> Inv m ->
    Inv (conjugate Ops m) /\ crow (conjugate Ops m) = crow m /\ ccol (conjugate Ops m) = ccol m /\
    (forall i c : N, i < crow m -> entry Ops (conjugate Ops m) i c = econj Ops (entry Ops m i c)).
Proof. exact @conjugate_spec. Qed.
Print Assumptions C25_conjugate_spec.
