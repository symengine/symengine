(* C25 -- csr_matmat, part 3: the two passes under the SciPy protocol compute the dense
   matrix product, in canonical format.
   Files: CsrMatmat1.v (generic lemmas, algebra), CsrMatmat2.v (the two passes),
   this file (the protocol [matmat]). *)
From SE Require Export C25.CsrMatmat2.
Local Open Scope N_scope.
Local Open Scope res_scope.

Section Matmat.
Context {E : Type}.
Variable Ops : eops E.
Notation zero := (ezero Ops).

Lemma srt_le_lt (l : list (N * E)) : srt N.le l -> NoDup (map fst l) -> srt N.lt l.
Proof.
  induction l as [|a l IH]; cbn [srt map]; [auto|].
  intros (H1 & H2) Hn. inversion Hn as [|? ? Hni Hn']; subst.
  split; [|apply IH; assumption].
  intros b Hb. specialize (H1 b Hb).
  assert (fst a <> fst b) by (intros He; apply Hni; rewrite He; apply in_map; assumption).
  lia.
Qed.

Lemma lookup_perm (l l' : list (N * E)) k :
  Permutation l l' -> NoDup (map fst l) -> lookup Ops k l = lookup Ops k l'.
Proof.
  induction 1 as [|x l l' Hp IH|x y l|l l' l'' Hp1 IH1 Hp2 IH2]; intros Hn.
  - reflexivity.
  - rewrite !lookup_cons. cbn [map] in Hn. inversion Hn; subst.
    destruct (fst x =? k); [reflexivity|]. apply IH; assumption.
  - rewrite !lookup_cons. cbn [map] in Hn. inversion Hn as [|? ? Hni _]; subst.
    destruct (N.eqb_spec (fst y) k) as [Hy|]; destruct (N.eqb_spec (fst x) k) as [Hx|]; try reflexivity.
    exfalso. apply Hni. left. congruence.
  - rewrite IH1 by assumption. apply IH2.
    apply (Permutation_NoDup (Permutation_map fst Hp1)). assumption.
Qed.

Section Fixed.
Variables A B : csr E.
Hypothesis Hsr : semiring Ops.
Hypothesis Hzt : zero_test_sound Ops.
Hypothesis HA : @Inv E A.
Hypothesis HB : @Inv E B.
Hypothesis Hd : ccol A = crow B.
Hypothesis Hsz : crow A * ccol B < 2 ^ 31.
Notation items := (items Ops A B).
Notation em := (em Ops A B).
Notation psum := (psum Ops A B).
Notation psum2 := (psum2 Ops A B).
Notation cnt2 := (cnt2 Ops A B).

(* the value the product row i holds for column k *)
Lemma lookup_em i k : lookup Ops k (em i) = csum Ops k (items i).
Proof.
  unfold CsrMatmat2.em. destruct (in_dec N.eq_dec k (disc (map fst (items i)))) as [Hin|Hn].
  - unfold stored. rewrite lookup_sel; [reflexivity| |exact Hin].
    intros Hz. apply Hzt. destruct (eis_zero Ops (csum Ops k (items i))); [reflexivity|discriminate].
  - unfold stored. rewrite lookup_sel_notin by exact Hn. symmetry. apply csum_notin. rewrite disc_in in Hn. exact Hn.
Qed.

Lemma em_nodup i : NoDup (map fst (em i)).
Proof. unfold CsrMatmat2.em. unfold stored. rewrite sel_fst. apply NoDup_filter, disc_nodup. Qed.

Lemma em_col_lt i x : i < crow A -> In x (em i) -> fst x < ccol B.
Proof.
  intros Hi Hx. unfold CsrMatmat2.em in Hx. apply sel_in in Hx. rewrite disc_in in Hx.
  apply (items_col_lt Ops A B i); assumption.
Qed.

Theorem matmat_aux :
  exists C, matmat Ops A B = Ok C /\ crow C = crow A /\ ccol C = ccol B /\ @wf E C /\
    (forall i, i < crow A -> Permutation (row_of Ops C i) (em i) /\ srt N.le (row_of Ops C i)).
Proof.
  unfold matmat.
  pose proof (rowA_small A HA) as Hrow.
  assert (Hl0 : lenN (cp (mk_zero (E:=E) (crow A) (ccol B))) = crow A + 1).
  { unfold mk_zero. cbn [cp]. rewrite lenN_repeat, uadd_small by lia. lia. }
  destruct (pass1_spec Ops A B HA HB Hd Hsz _ Hl0) as (p1 & Hrun1 & Hl1 & Hp1).
  rewrite Hrun1. cbn [bind cp cj cx crow ccol mk_zero].
  rewrite (getN_ok p1 (crow A) 0) by lia. cbn [bind].
  rewrite (Hp1 (crow A)) by lia.
  match goal with |- context [matmat_pass2 Ops A B ?C1] =>
    destruct (pass2_spec Ops A B HA HB Hd Hsz Hsr C1)
      as (p2 & j2 & x2 & Hrun2 & Hl2 & Lj & Lx & Hp2 & Hrows) end.
  { cbn [cp]. exact Hl1. }
  { cbn [cj]. apply lenN_resizeN. }
  { cbn [cx]. apply lenN_resizeN. }
  rewrite Hrun2. cbn [bind cp cj cx crow ccol].
  rewrite (getN_ok p2 (crow A) 0) by lia. cbn [bind].
  rewrite (Hp2 (crow A)) by lia.
  rewrite (resizeN_id j2) by (symmetry; exact Lj).
  rewrite (resizeN_id x2) by (symmetry; exact Lx).
  eexists. split; [reflexivity|]. split; [reflexivity|]. split; [reflexivity|]. split.
  - (* wf *)
    unfold wf, pN. cbn [cp cj cx crow ccol]. split; [exact Hl2|].
    split; [rewrite Hp2 by lia; reflexivity|].
    split; [|split].
    + intros i Hi. rewrite !Hp2 by lia. rewrite psum2_succ. lia.
    + rewrite Hp2 by lia. symmetry. exact Lj.
    + lia.
  - (* rows *)
    intros i Hi. rewrite row_of_seg. unfold pN. cbn [cp cj cx]. rewrite !Hp2 by lia.
    apply Hrows. exact Hi.
Qed.

End Fixed.

Theorem matmat_spec (A B : csr E) :
  semiring Ops -> zero_test_sound Ops ->
  @Inv E A -> @Inv E B -> ccol A = crow B -> crow A * ccol B < 2 ^ 31 ->
  exists C, matmat Ops A B = Ok C /\ crow C = crow A /\ ccol C = ccol B /\ @Inv E C /\
    forall i k, i < crow A -> k < ccol B ->
      entry Ops C i k = dsum Ops (ccol A) (fun j => emul Ops (entry Ops A i j) (entry Ops B j k)).
Proof.
  intros Hsr Hzt HA HB Hd Hsz.
  destruct (matmat_aux A B Hsr HA HB Hd Hsz) as (C & Hrun & Hr & Hc & Hwf & Hrows).
  assert (Hnd : forall i, i < crow A -> NoDup (map fst (row_of Ops C i))).
  { intros i Hi. destruct (Hrows i Hi) as (P & _).
    apply (Permutation_NoDup (Permutation_sym (Permutation_map fst P))). apply em_nodup. }
  exists C. split; [exact Hrun|]. split; [exact Hr|]. split; [exact Hc|]. split.
  - apply (Inv_of_rows Ops); [exact Hwf| |].
    + unfold dims_ok. rewrite Hr, Hc. split; [apply (rowA_small A HA)|].
      split; [apply (colB_small B HB)|exact Hsz].
    + rewrite Hr, Hc. intros i Hi. destruct (Hrows i Hi) as (P & Hs).
      split; [apply srt_le_lt; [exact Hs|apply Hnd, Hi]|].
      intros e He. split; [lia|]. apply (em_col_lt A B HA HB Hd i e Hi), (Permutation_in _ P), He.
  - intros i k Hi Hk. unfold entry at 1. destruct (Hrows i Hi) as (P & _).
    rewrite (lookup_perm _ _ k P (Hnd i Hi)).
    rewrite (lookup_em A B Hzt). apply csum_items; assumption.
Qed.

End Matmat.

Print Assumptions matmat_spec.
