(* C25 -- CSRMatrix::jacobian (rows built by push_back from a dense table of
   derivatives, zeros skipped). *)
From SE Require Export C25.CsrBinop.
Local Open Scope N_scope.
Local Open Scope res_scope.

Section Jac.
Context {E : Type}.
Variable Ops : eops E.
Notation mat := (csr E).
Notation entry := (entry Ops).
Notation lookup := (lookup Ops).
Notation Inv := (Inv (E:=E)).
Notation row_in := (row_in (E:=E)).
Hypothesis Hz : zero_test_sound Ops.

(* the stored part of a dense row: (column, value) for the non-zero values among n columns from a on *)
Definition frow (drow : list E) (a : N) (n : nat) : list (N * E) :=
  stored Ops (Nseq a n) (fun c => nthN drow c (ezero Ops)).

Lemma frow_S drow a n :
  frow drow a (S n) = frow drow a n ++ (if negb (eis_zero Ops (nthN drow (a + N.of_nat n) (ezero Ops)))
                                         then [(a + N.of_nat n, nthN drow (a + N.of_nat n) (ezero Ops))] else []).
Proof. unfold frow, stored. rewrite Nseq_S, sel_app. reflexivity. Qed.

Lemma frow_in drow hi n a lo : lo <= a -> a + N.of_nat n <= hi -> row_in lo hi (frow drow a n).
Proof. apply sel_Nseq_in. Qed.

Lemma frow_lookup drow c n a : a <= c -> c < a + N.of_nat n ->
  lookup c (frow drow a n) = nthN drow c (ezero Ops).
Proof.
  intros H1 H2. unfold frow, stored. rewrite lookup_sel; [reflexivity| |apply in_Nseq; lia].
  intros Hc. apply Hz. destruct (eis_zero Ops (nthN drow c (ezero Ops))); [reflexivity|discriminate].
Qed.

Lemma last_nth' {A} (l : list A) d : last l d = nth (length l - 1) l d.
Proof.
  induction l as [|a l IH]; [reflexivity|].
  destruct l as [|b l']; [reflexivity|].
  change (last (a :: b :: l') d) with (last (b :: l') d). rewrite IH.
  cbn [length]. replace (S (S (length l')) - 1)%nat with (S (S (length l') - 1)) by lia. reflexivity.
Qed.

(* the inner loop over the columns appends the stored part of the dense row and moves the last pointer *)
Lemma jac_row_loop (drow : list E) (ncols : N) (p j : list N) (x : list E) (n : N) :
  lenN drow = ncols -> n + ncols < 4294967296 ->
  for_range 0 ncols
    (fun ci (st : list N * list N * list E) => let '(p, j, x) := st in
       do elem <- getN drow ci;
       if negb (eis_zero Ops elem) then Ok (removelast p ++ [uadd (last p 0) 1], j ++ [ci], x ++ [elem])
       else Ok (p, j, x))
    (p ++ [n], j, x)
  = Ok (p ++ [n + lenN (frow drow 0 (N.to_nat ncols))],
        j ++ map fst (frow drow 0 (N.to_nat ncols)), x ++ map snd (frow drow 0 (N.to_nat ncols))).
Proof.
  intros Hdl Hn.
  match goal with |- for_range 0 ncols ?body ?s0 = _ =>
    destruct (for_range_inv
      (fun ci (st : list N * list N * list E) =>
         st = (p ++ [n + lenN (frow drow 0 (N.to_nat ci))],
               j ++ map fst (frow drow 0 (N.to_nat ci)), x ++ map snd (frow drow 0 (N.to_nat ci))))
      body 0 ncols s0) as (st' & Hin & ->) end.
  - lia.
  - change (N.to_nat 0) with 0%nat. unfold frow, stored, sel; cbn [Nseq map filter]. rewrite !app_nil_r, lenN_nil, N.add_0_r.
    reflexivity.
  - intros ci st C1 C2 ->.
    rewrite (getN_ok drow ci (ezero Ops)) by lia. cbn [bind].
    replace (N.to_nat (ci + 1)) with (S (N.to_nat ci)) by lia. rewrite frow_S.
    replace (0 + N.of_nat (N.to_nat ci)) with ci by lia.
    pose proof (row_in_length _ 0 ci ltac:(lia) (frow_in drow ci (N.to_nat ci) 0 0 ltac:(lia) ltac:(lia))) as Hlen.
    destruct (eis_zero Ops (nthN drow ci (ezero Ops))); cbn [negb].
    + eexists; split; [reflexivity|]. rewrite !app_nil_r. reflexivity.
    + eexists; split; [reflexivity|].
      rewrite removelast_last, last_last. rewrite uadd_small by lia.
      rewrite !map_app, lenN_app. cbn [map fst snd]. rewrite !app_assoc.
      change (lenN [(ci, nthN drow ci (ezero Ops))]) with 1. rewrite N.add_assoc. reflexivity.
  - exact Hin.
Qed.

Theorem jacobian_spec (d : list (list E)) (ncols : N) :
  lenN d < 2 ^ 31 -> ncols < 2 ^ 31 -> lenN d * ncols < 2 ^ 31 ->
  (forall i, i < lenN d -> lenN (nthN d i []) = ncols) ->
  exists R, jacobian Ops d ncols = Ok R /\ Inv R /\ crow R = lenN d /\ ccol R = ncols /\
    forall i c, i < lenN d -> c < ncols -> entry R i c = nthN (nthN d i []) c (ezero Ops).
Proof.
  intros Hr Hc Hrc Hd. unfold jacobian.
  set (nrows := lenN d) in *.
  set (rows := fun i => frow (nthN d i []) 0 (N.to_nat ncols)).
  assert (Hb : forall i, row_in 0 ncols (rows i)) by (intros; unfold rows; apply frow_in; lia).
  match goal with |- context [for_range 0 nrows ?b ?s0] =>
    destruct (for_range_inv (fun i (st : list N * list N * list E) => let '(p, j, x) := st in
                 lenN p = i + 1 /\ lenN j <= i * ncols /\ built Ops rows i p j x) b 0 nrows s0)
      as ([[p j] x] & Hrun & P1 & P2 & PB) end.
  - lia.
  - split; [reflexivity|]. split; [rewrite lenN_nil; lia|]. refine (built_0 Ops rows _ _). reflexivity.
  - intros ri [[p j] x] _ I2 (P1 & P2 & PB).
    rewrite (getN_ok d ri []) by assumption. cbn [bind].
    set (drow := nthN d ri []). assert (Hdl : lenN drow = ncols) by (apply Hd; assumption).
    assert (Hlast : last p 0 = lenN j).
    { destruct PB as (_ & _ & <- & _). rewrite last_nth'. unfold nthN. f_equal. unfold lenN in P1; lia. }
    rewrite Hlast.
    rewrite (jac_row_loop drow ncols p j x (lenN j) Hdl) by nia.
    pose proof (row_in_length _ 0 ncols ltac:(lia) (Hb ri)) as Hlr.
    eexists; split; [reflexivity|].
    split; [rewrite lenN_app, lenN_cons, lenN_nil; lia|].
    split; [rewrite lenN_app, lenN_map; change (frow drow 0 (N.to_nat ncols)) with (rows ri); nia|].
    apply (built_step Ops rows ri p); [exact PB| |].
    + intros t Ht. apply nthN_app1. lia.
    + rewrite nthN_app2 by lia. rewrite P1, N.sub_diag. reflexivity.
  - rewrite Hrun. cbn [bind]. eexists; split; [reflexivity|].
    destruct (built_Inv Ops rows nrows ncols p j x PB P1) as (IR & HR); try lia.
    { intros i _. apply Hb. }
    split; [exact IR|]. split; [reflexivity|]. split; [reflexivity|].
    intros i c Hi Hcc. unfold CsrSpec.entry. rewrite (HR i Hi). unfold rows. apply frow_lookup; lia.
Qed.

End Jac.
