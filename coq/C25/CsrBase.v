(* C25 -- generic lemmas: 32-bit arithmetic without wrap, checked vectors, for-loops, Nseq, counting. *)
From SE Require Export C25.CsrSpec.
Local Open Scope N_scope.
Local Open Scope res_scope.

(* the midpoint of the binary searches *)
Lemma half_spec a b : a < b ->
  a <= (a + b) / 2 /\ (a + b) / 2 < b /\ ((a + b) / 2 = a -> b = a + 1).
Proof.
  intros H. pose proof (N.div_mod (a + b) 2 ltac:(lia)). pose proof (N.mod_upper_bound (a + b) 2 ltac:(lia)).
  generalize dependent ((a + b) mod 2). generalize dependent ((a + b) / 2). intros. lia.
Qed.

Lemma uadd_small a b : a + b < 4294967296 -> uadd a b = a + b.
Proof. intros; unfold uadd, W32; apply N.mod_small; lia. Qed.

Lemma usub_small a b : b <= a -> a < 4294967296 -> usub a b = a - b.
Proof.
  intros; unfold usub, W32.
  rewrite (N.mod_small b) by lia.
  replace (a + 4294967296 - b) with ((a - b) + 1 * 4294967296) by lia.
  rewrite N.mod_add by lia. apply N.mod_small; lia.
Qed.

Lemma u32_small a : a < 4294967296 -> u32 a = a.
Proof. intros; unfold u32, W32; apply N.mod_small; lia. Qed.

Definition updn {A} (n : nat) (l : list A) (a : A) : list A := firstn n l ++ a :: skipn (S n) l.
(* [a] elements from position n on replaced by [new]: vector insert (a = 0) and erase (a = 1, nothing new) *)
Definition spl {A} (n a : nat) (new l : list A) : list A := firstn n l ++ new ++ skipn (a + n) l.

Lemma lenN_nat {A} (l : list A) : N.to_nat (lenN l) = length l.
Proof. unfold lenN; lia. Qed.

Lemma nth_skipn' {A} n (l : list A) k d : nth k (skipn n l) d = nth (n + k) l d.
Proof.
  revert l; induction n; intros; [reflexivity|].
  destruct l; cbn [skipn Nat.add nth]; [destruct k; reflexivity|]. apply IHn.
Qed.

Lemma nth_firstn' {A} n (l : list A) k d : (k < n)%nat -> nth k (firstn n l) d = nth k l d.
Proof.
  revert l k; induction n; intros; [lia|].
  destruct l; cbn [firstn nth]; [reflexivity|]. destruct k; [reflexivity|]. apply IHn; lia.
Qed.

Lemma length_updn {A} n (l : list A) a : (n < length l)%nat -> length (updn n l a) = length l.
Proof.
  intros; unfold updn. rewrite app_length, firstn_length; cbn [length]. rewrite skipn_length. lia.
Qed.

Lemma nth_updn {A} n (l : list A) a k d : (n < length l)%nat ->
  nth k (updn n l a) d = if Nat.eqb k n then a else nth k l d.
Proof.
  intros; unfold updn.
  destruct (Nat.eqb_spec k n) as [->|Hne].
  - rewrite app_nth2; rewrite firstn_length; [|lia].
    replace (n - Nat.min n (length l))%nat with 0%nat by lia. reflexivity.
  - destruct (Nat.lt_ge_cases k n).
    + rewrite app_nth1 by (rewrite firstn_length; lia). apply nth_firstn'; assumption.
    + rewrite app_nth2 by (rewrite firstn_length; lia). rewrite firstn_length.
      replace (k - Nat.min n (length l))%nat with (S (k - S n)) by lia. cbn [nth].
      rewrite nth_skipn'. f_equal; lia.
Qed.

Lemma getN_ok {A} (l : list A) i d : i < lenN l -> getN l i = Ok (nthN l i d).
Proof.
  intros H; unfold getN, nthN.
  destruct (N.ltb_spec i (lenN l)); [|lia].
  destruct (nth_error l (N.to_nat i)) eqn:Hn.
  - f_equal. symmetry. apply nth_error_nth; assumption.
  - apply nth_error_None in Hn. unfold lenN in *; lia.
Qed.

Lemma getN_inv {A} (l : list A) i a d : getN l i = Ok a -> i < lenN l /\ a = nthN l i d.
Proof.
  intros H.
  destruct (N.ltb_spec i (lenN l)) as [Hlt|Hge].
  - split; [assumption|]. rewrite (getN_ok l i d Hlt) in H. injection H as <-. reflexivity.
  - unfold getN in H. destruct (N.ltb_spec i (lenN l)); [lia|discriminate].
Qed.

Lemma getN_oob {A} (l : list A) i : lenN l <= i -> getN l i = ErrOOB i (lenN l).
Proof. intros; unfold getN. destruct (N.ltb_spec i (lenN l)); [lia|reflexivity]. Qed.

Lemma setN_ok {A} (l : list A) i a : i < lenN l -> setN l i a = Ok (updn (N.to_nat i) l a).
Proof. intros; unfold setN. destruct (N.ltb_spec i (lenN l)); [reflexivity|lia]. Qed.

Lemma setN_inv {A} (l : list A) i a l' : setN l i a = Ok l' -> i < lenN l /\ l' = updn (N.to_nat i) l a.
Proof.
  unfold setN; intros H. destruct (N.ltb_spec i (lenN l)); [|discriminate].
  injection H as <-. auto.
Qed.

Lemma insertN_ok {A} (l : list A) i a : i <= lenN l -> insertN l i a = Ok (spl (N.to_nat i) 0 [a] l).
Proof. intros; unfold insertN. destruct (N.leb_spec i (lenN l)); [reflexivity|lia]. Qed.

Lemma eraseN_ok {A} (l : list A) i : i < lenN l -> eraseN l i = Ok (spl (N.to_nat i) 1 [] l).
Proof. intros; unfold eraseN. destruct (N.ltb_spec i (lenN l)); [reflexivity|lia]. Qed.

Lemma lenN_updn {A} i (l : list A) a : i < lenN l -> lenN (updn (N.to_nat i) l a) = lenN l.
Proof. intros; unfold lenN in *. rewrite length_updn by lia. reflexivity. Qed.

Lemma nthN_updn {A} i (l : list A) a k d : i < lenN l ->
  nthN (updn (N.to_nat i) l a) k d = if k =? i then a else nthN l k d.
Proof.
  intros; unfold nthN. rewrite nth_updn by (unfold lenN in *; lia).
  destruct (Nat.eqb_spec (N.to_nat k) (N.to_nat i)), (N.eqb_spec k i); try reflexivity; lia.
Qed.

Lemma lenN_spl {A} k a (new l : list A) : k + N.of_nat a <= lenN l ->
  lenN (spl (N.to_nat k) a new l) + N.of_nat a = lenN l + lenN new.
Proof. unfold lenN, spl. intros. rewrite !app_length, firstn_length, skipn_length. lia. Qed.

Lemma nthN_spl_lo {A} k a (new l : list A) t d : t < k -> k <= lenN l ->
  nthN (spl (N.to_nat k) a new l) t d = nthN l t d.
Proof.
  unfold nthN, lenN, spl. intros. rewrite app_nth1 by (rewrite firstn_length; lia). apply nth_firstn'; lia.
Qed.

Lemma nthN_spl_hi {A} k a (new l : list A) t d : k + N.of_nat a <= t -> k + N.of_nat a <= lenN l ->
  nthN (spl (N.to_nat k) a new l) (t + lenN new - N.of_nat a) d = nthN l t d.
Proof.
  unfold nthN, lenN, spl. intros. rewrite app_nth2; rewrite firstn_length; [|lia].
  rewrite app_nth2 by lia. rewrite nth_skipn'. f_equal; lia.
Qed.

Lemma nthN_spl_at {A} k a (v : A) l d : k <= lenN l -> nthN (spl (N.to_nat k) a [v] l) k d = v.
Proof.
  unfold nthN, lenN, spl. intros. rewrite app_nth2; rewrite firstn_length; [|lia].
  replace (N.to_nat k - Nat.min (N.to_nat k) (length l))%nat with 0%nat by lia. reflexivity.
Qed.

Lemma nthN_overflow {A} (l : list A) k d : lenN l <= k -> nthN l k d = d.
Proof. intros; unfold nthN. apply nth_overflow. unfold lenN in *; lia. Qed.

Lemma nthN_repeat {A} (a : A) n k d : k < N.of_nat n -> nthN (repeat a n) k d = a.
Proof.
  intros; unfold nthN. apply nth_repeat_lt || idtac.
  revert k H. induction n; intros; [lia|].
  cbn [repeat]. destruct (N.to_nat k) eqn:Hk; cbn [nth]; [reflexivity|].
  specialize (IHn (N.of_nat n0)). rewrite Nat2N.id in IHn. apply IHn. lia.
Qed.

Lemma lenN_repeat {A} (a : A) n : lenN (repeat a n) = N.of_nat n.
Proof. unfold lenN. rewrite repeat_length. reflexivity. Qed.

Lemma lenN_cons {A} (a : A) l : lenN (a :: l) = lenN l + 1.
Proof. unfold lenN; cbn [length]; lia. Qed.

Lemma lenN_nil {A} : lenN (@nil A) = 0.
Proof. reflexivity. Qed.

Lemma lenN_map {A B} (g : A -> B) (l : list A) : lenN (map g l) = lenN l.
Proof. unfold lenN. rewrite map_length. reflexivity. Qed.

Lemma lenN_app {A} (l1 l2 : list A) : lenN (l1 ++ l2) = lenN l1 + lenN l2.
Proof. unfold lenN. rewrite app_length. lia. Qed.

Lemma nthN_app1 {A} (l1 l2 : list A) k d : k < lenN l1 -> nthN (l1 ++ l2) k d = nthN l1 k d.
Proof. intros; unfold nthN. apply app_nth1. unfold lenN in *; lia. Qed.

Lemma nthN_app2 {A} (l1 l2 : list A) k d : lenN l1 <= k -> nthN (l1 ++ l2) k d = nthN l2 (k - lenN l1) d.
Proof.
  intros; unfold nthN. rewrite app_nth2 by (unfold lenN in *; lia). f_equal. unfold lenN in *; lia.
Qed.

(* v.resize(n) *)
Lemma lenN_resizeN {A} (l : list A) n fill : lenN (resizeN l n fill) = n.
Proof.
  unfold resizeN, lenN. rewrite app_length, firstn_length, repeat_length. lia.
Qed.

Lemma nthN_resizeN {A} (l : list A) n fill k d : k < n -> n <= lenN l ->
  nthN (resizeN l n fill) k d = nthN l k d.
Proof.
  intros Hk Hn. unfold resizeN, nthN, lenN in *.
  rewrite app_nth1 by (rewrite firstn_length; lia). apply nth_firstn'. lia.
Qed.

Lemma resizeN_id {X} (l : list X) n d : n = lenN l -> resizeN l n d = l.
Proof.
  intros ->. unfold resizeN, lenN. rewrite Nat2N.id, firstn_all, Nat.sub_diag.
  cbn [repeat]. apply app_nil_r.
Qed.

(* monotone row pointers *)
Lemma mono_le (p : list N) n : (forall i, i < n -> nthN p i 0 <= nthN p (i + 1) 0) ->
  forall b a, a <= b -> b <= n -> nthN p a 0 <= nthN p b 0.
Proof.
  intros Hm b. induction b using N.peano_ind; intros a Hab Hb.
  - replace a with 0 by lia. lia.
  - destruct (N.eq_dec a (N.succ b)) as [->|]; [lia|].
    specialize (IHb a). specialize (Hm b). replace (N.succ b) with (b + 1) in * by lia. lia.
Qed.

Lemma bind_Ok {A B} (r : res A) (f : A -> res B) b :
  bind r f = Ok b -> exists a, r = Ok a /\ f a = Ok b.
Proof. destruct r; cbn; intros; try discriminate. eauto. Qed.

Lemma for_n_inv {St} (P : N -> St -> Prop) (body : N -> St -> res St) :
  forall n i s,
    P i s ->
    (forall k s, i <= k -> k < i + N.of_nat n -> P k s -> exists s', body k s = Ok s' /\ P (k + 1) s') ->
    exists s', for_n n i body s = Ok s' /\ P (i + N.of_nat n) s'.
Proof.
  induction n; intros i s H0 Hstep.
  - exists s. split; [reflexivity|]. replace (i + N.of_nat 0) with i by lia. assumption.
  - cbn [for_n]. destruct (Hstep i s) as (s1 & Hb & H1); [lia|lia|assumption|].
    rewrite Hb. cbn [bind].
    destruct (IHn (i + 1) s1 H1) as (s2 & Hf & H2).
    + intros k s' ? ? ?. apply Hstep; [lia|lia|assumption].
    + exists s2. split; [assumption|]. replace (i + N.of_nat (S n)) with (i + 1 + N.of_nat n) by lia. assumption.
Qed.

Lemma for_range_inv {St} (P : N -> St -> Prop) (body : N -> St -> res St) a b s :
  a <= b -> P a s ->
  (forall k s, a <= k -> k < b -> P k s -> exists s', body k s = Ok s' /\ P (k + 1) s') ->
  exists s', for_range a b body s = Ok s' /\ P b s'.
Proof.
  intros Hab H0 Hstep. unfold for_range.
  destruct (for_n_inv P body (N.to_nat (b - a)) a s H0) as (s' & Hf & Hp).
  - intros; apply Hstep; [lia|lia|assumption].
  - exists s'. split; [assumption|]. replace b with (a + N.of_nat (N.to_nat (b - a))) at 1 by lia. assumption.
Qed.

Lemma for_range_empty {St} (body : N -> St -> res St) a b s : b <= a -> for_range a b body s = Ok s.
Proof. intros; unfold for_range. replace (N.to_nat (b - a)) with 0%nat by lia. reflexivity. Qed.

(* a loop ends at the first iteration that does not succeed *)
Lemma for_n_fails {St} (P : N -> St -> Prop) (body : N -> St -> res St) (r : res St) :
  (forall s, r <> Ok s) ->
  forall n1 n2 i s,
    P i s ->
    (forall k s, i <= k -> k < i + N.of_nat n1 -> P k s -> exists s', body k s = Ok s' /\ P (k + 1) s') ->
    (forall s, P (i + N.of_nat n1) s -> body (i + N.of_nat n1) s = r) ->
    for_n (n1 + S n2) i body s = r.
Proof.
  intros Hr. induction n1; intros n2 i s H0 Hstep Hfail; cbn [for_n Nat.add].
  - rewrite N.add_0_r in Hfail. rewrite (Hfail s H0). destruct r as [s0| | |]; cbn [bind]; try reflexivity. now destruct (Hr s0).
  - destruct (Hstep i s) as (s1 & -> & H1); [lia|lia|assumption|]. cbn [bind].
    apply IHn1; [exact H1| |].
    + intros k s' ? ? ?. apply Hstep; [lia|lia|assumption].
    + replace (i + 1 + N.of_nat n1) with (i + N.of_nat (S n1)) by lia. exact Hfail.
Qed.

Lemma for_range_fails {St} (P : N -> St -> Prop) (body : N -> St -> res St) (r : res St) a b i0 s :
  (forall s, r <> Ok s) -> a <= i0 -> i0 < b -> P a s ->
  (forall k s, a <= k -> k < i0 -> P k s -> exists s', body k s = Ok s' /\ P (k + 1) s') ->
  (forall s, P i0 s -> body i0 s = r) ->
  for_range a b body s = r.
Proof.
  intros Hr H1 H2 H0 Hstep Hfail. unfold for_range.
  replace (N.to_nat (b - a)) with (N.to_nat (i0 - a) + S (N.to_nat (b - i0 - 1)))%nat by lia.
  apply (for_n_fails P body r Hr); [exact H0| |].
  - intros k s' K1 K2. apply Hstep; lia.
  - replace (a + N.of_nat (N.to_nat (i0 - a))) with i0 by lia. exact Hfail.
Qed.

(* a loop that rewrites the entries a .. b-1 of a vector one by one, entry k by g k *)
Lemma rewrite_loop {X} (g : N -> X -> X) (d : X) a b (xs : list X) (body : N -> list X -> res (list X)) :
  a <= b -> b <= lenN xs ->
  (forall k ys, a <= k -> k < b -> lenN ys = lenN xs -> body k ys = setN ys k (g k (nthN ys k d))) ->
  exists ys, for_range a b body xs = Ok ys /\ lenN ys = lenN xs /\
    (forall k, a <= k -> k < b -> nthN ys k d = g k (nthN xs k d)) /\
    (forall k, k < a \/ b <= k -> nthN ys k d = nthN xs k d).
Proof.
  intros Hab Hb Hbody.
  apply (for_range_inv (fun l ys => lenN ys = lenN xs /\
           (forall k, a <= k -> k < l -> nthN ys k d = g k (nthN xs k d)) /\
           (forall k, k < a \/ l <= k -> nthN ys k d = nthN xs k d))).
  - exact Hab.
  - split; [reflexivity|]. split; [intros; lia|reflexivity].
  - intros l ys L1 L2 (Sl & Shi & Slo). rewrite Hbody by assumption. rewrite setN_ok by lia.
    eexists; split; [reflexivity|]. split; [rewrite lenN_updn by lia; exact Sl|]. split.
    + intros k K1 K2. rewrite nthN_updn by lia.
      destruct (N.eqb_spec k l) as [->|]; [rewrite Slo by lia; reflexivity|]. apply Shi; lia.
    + intros k Hk. rewrite nthN_updn by lia. destruct (N.eqb_spec k l); [lia|]. apply Slo; lia.
Qed.

(* the converse direction: from a successful run to the invariant *)
Lemma for_n_sound {St} (P : N -> St -> Prop) (body : N -> St -> res St) :
  forall n i s s',
    for_n n i body s = Ok s' ->
    P i s ->
    (forall k s s1, i <= k -> k < i + N.of_nat n -> body k s = Ok s1 -> P k s -> P (k + 1) s1) ->
    P (i + N.of_nat n) s'.
Proof.
  induction n; intros i s s' Hf H0 Hstep.
  - cbn in Hf. injection Hf as <-. replace (i + N.of_nat 0) with i by lia. assumption.
  - cbn [for_n] in Hf. apply bind_Ok in Hf as (s1 & Hb & Hf).
    replace (i + N.of_nat (S n)) with (i + 1 + N.of_nat n) by lia.
    eapply IHn; [exact Hf| |].
    + eapply Hstep; [| |exact Hb|exact H0]; lia.
    + intros k s2 s3 ? ? ? ?. eapply Hstep; [| |eassumption|assumption]; lia.
Qed.

Lemma for_range_sound {St} (P : N -> St -> Prop) (body : N -> St -> res St) a b s s' :
  a <= b ->
  for_range a b body s = Ok s' ->
  P a s ->
  (forall k s s1, a <= k -> k < b -> body k s = Ok s1 -> P k s -> P (k + 1) s1) ->
  P b s'.
Proof.
  intros Hab Hf H0 Hstep. unfold for_range in Hf.
  replace b with (a + N.of_nat (N.to_nat (b - a))) at 1 by lia.
  eapply for_n_sound; [exact Hf|exact H0|].
  intros; eapply Hstep; [| |eassumption|assumption]; lia.
Qed.

Lemma Nseq_length a n : length (Nseq a n) = n.
Proof. revert a; induction n; intros; cbn; [reflexivity|]. f_equal; apply IHn. Qed.

Lemma Nseq_app a n1 n2 : Nseq a (n1 + n2) = Nseq a n1 ++ Nseq (a + N.of_nat n1) n2.
Proof.
  revert a; induction n1; intros; cbn [Nseq Nat.add app].
  - f_equal; lia.
  - f_equal. rewrite IHn1. f_equal. f_equal. lia.
Qed.

Lemma Nseq_S a n : Nseq a (S n) = Nseq a n ++ [a + N.of_nat n].
Proof. replace (S n) with (n + 1)%nat by lia. rewrite Nseq_app. reflexivity. Qed.

Lemma in_Nseq a n k : In k (Nseq a n) <-> a <= k /\ k < a + N.of_nat n.
Proof.
  revert a; induction n; intros; cbn [Nseq In].
  - split; [tauto|lia].
  - rewrite IHn. lia.
Qed.

Lemma nth_Nseq a n k d : (k < n)%nat -> nth k (Nseq a n) d = a + N.of_nat k.
Proof.
  revert a k; induction n; intros; [lia|].
  cbn [Nseq]. destruct k; cbn [nth]; [lia|]. rewrite IHn by lia. lia.
Qed.

Lemma for_range_accl {St X} (Q : list X -> St -> Prop) (g : N -> list X)
      (body : N -> St -> res St) a b s L0 :
  a <= b -> Q L0 s ->
  (forall k L s, a <= k -> k < b -> Q L s -> exists s', body k s = Ok s' /\ Q (L ++ g k) s') ->
  exists s', for_range a b body s = Ok s' /\ Q (L0 ++ flat_map g (Nseq a (N.to_nat (b - a)))) s'.
Proof.
  intros Hab H0 Hstep.
  destruct (for_range_inv (fun k s => Q (L0 ++ flat_map g (Nseq a (N.to_nat (k - a)))) s) body a b s Hab)
    as (s' & Hr & Hq).
  - replace (N.to_nat (a - a)) with 0%nat by lia. cbn [Nseq flat_map]. rewrite app_nil_r. exact H0.
  - intros k s0 Hk1 Hk2 Hq.
    destruct (Hstep k _ s0 Hk1 Hk2 Hq) as (s1 & Hb & Hq1). exists s1. split; [exact Hb|].
    replace (N.to_nat (k + 1 - a)) with (S (N.to_nat (k - a))) by lia.
    rewrite Nseq_S, flat_map_app. cbn [flat_map]. rewrite app_nil_r, app_assoc.
    replace (a + N.of_nat (N.to_nat (k - a))) with k by lia. exact Hq1.
  - exists s'. split; assumption.
Qed.

Lemma flat_map_single {X Y} (f : X -> Y) l : flat_map (fun x => [f x]) l = map f l.
Proof. induction l; cbn [flat_map map app]; [reflexivity|]. f_equal; assumption. Qed.

Lemma for_range_acc1 {St X} (Q : list X -> St -> Prop) (f : N -> X)
      (body : N -> St -> res St) a b s L0 :
  a <= b -> Q L0 s ->
  (forall k L s, a <= k -> k < b -> Q L s -> exists s', body k s = Ok s' /\ Q (L ++ [f k]) s') ->
  exists s', for_range a b body s = Ok s' /\ Q (L0 ++ map f (Nseq a (N.to_nat (b - a)))) s'.
Proof.
  intros Hab H0 Hstep. rewrite <- flat_map_single.
  apply (for_range_accl Q (fun k => [f k])); assumption.
Qed.

Section Count.
Variable jf : N -> N.

(* number of k < n with jf k = c / with jf k < c *)
Fixpoint cntn (c : N) (n : nat) : N :=
  match n with
  | O => 0
  | S n' => cntn c n' + (if jf (N.of_nat n') =? c then 1 else 0)
  end.
Fixpoint cntltn (c : N) (n : nat) : N :=
  match n with
  | O => 0
  | S n' => cntltn c n' + (if jf (N.of_nat n') <? c then 1 else 0)
  end.
Definition cnt (c n : N) : N := cntn c (N.to_nat n).
Definition cntlt (c n : N) : N := cntltn c (N.to_nat n).

Lemma cnt_0 c : cnt c 0 = 0.
Proof. reflexivity. Qed.

Lemma cnt_succ c n : cnt c (n + 1) = cnt c n + (if jf n =? c then 1 else 0).
Proof.
  unfold cnt. replace (N.to_nat (n + 1)) with (S (N.to_nat n)) by lia.
  cbn [cntn]. rewrite N2Nat.id. reflexivity.
Qed.

Lemma cntlt_0 c : cntlt c 0 = 0.
Proof. reflexivity. Qed.

Lemma cntlt_succ c n : cntlt c (n + 1) = cntlt c n + (if jf n <? c then 1 else 0).
Proof.
  unfold cntlt. replace (N.to_nat (n + 1)) with (S (N.to_nat n)) by lia.
  cbn [cntltn]. rewrite N2Nat.id. reflexivity.
Qed.

Lemma cnt_le c n : cnt c n <= n.
Proof.
  induction n using N.peano_ind; [rewrite cnt_0; lia|].
  rewrite <- N.add_1_r, cnt_succ. destruct (jf n =? c); lia.
Qed.

Lemma cnt_mono c b : forall a, a <= b -> cnt c a <= cnt c b.
Proof.
  induction b using N.peano_ind; intros a Hab.
  - replace a with 0 by lia. lia.
  - destruct (N.eq_dec a (N.succ b)) as [->|]; [lia|].
    specialize (IHb a ltac:(lia)). rewrite <- N.add_1_r, cnt_succ. destruct (jf b =? c); lia.
Qed.

Lemma cnt_lt c a b : a < b -> jf a = c -> cnt c a < cnt c b.
Proof.
  intros Hab Hc. pose proof (cnt_mono c b (a + 1) ltac:(lia)) as H.
  rewrite cnt_succ in H. destruct (N.eqb_spec (jf a) c); lia.
Qed.

Lemma cntlt_0c n : cntlt 0 n = 0.
Proof.
  induction n using N.peano_ind; [reflexivity|].
  rewrite <- N.add_1_r, cntlt_succ. destruct (N.ltb_spec (jf n) 0); lia.
Qed.

Lemma cntlt_succ_c c n : cntlt (c + 1) n = cntlt c n + cnt c n.
Proof.
  induction n using N.peano_ind; [reflexivity|].
  rewrite <- N.add_1_r, !cntlt_succ, cnt_succ.
  destruct (N.ltb_spec (jf n) (c + 1)), (N.ltb_spec (jf n) c), (N.eqb_spec (jf n) c); lia.
Qed.

Lemma cntlt_all c n : (forall k, k < n -> jf k < c) -> cntlt c n = n.
Proof.
  induction n using N.peano_ind; intros H; [reflexivity|].
  rewrite <- N.add_1_r, cntlt_succ. rewrite IHn by (intros; apply H; lia).
  specialize (H n ltac:(lia)). destruct (N.ltb_spec (jf n) c); lia.
Qed.

Lemma cntlt_mono_c n c c' : c <= c' -> cntlt c n <= cntlt c' n.
Proof.
  intros Hc. induction n using N.peano_ind; [rewrite !cntlt_0; lia|].
  rewrite <- N.add_1_r, !cntlt_succ.
  destruct (N.ltb_spec (jf n) c), (N.ltb_spec (jf n) c'); lia.
Qed.

Lemma cntlt_le c n : cntlt c n <= n.
Proof.
  induction n using N.peano_ind; [rewrite cntlt_0; lia|].
  rewrite <- N.add_1_r, cntlt_succ. destruct (jf n <? c); lia.
Qed.

End Count.

(* counters kept one position higher, as CSRMatrix::transpose does *)
Lemma cnt_shift jf c n : cnt (fun k => jf k + 1) (c + 1) n = cnt jf c n.
Proof.
  induction n using N.peano_ind; [reflexivity|]. rewrite <- N.add_1_r, !cnt_succ, IHn.
  destruct (N.eqb_spec (jf n + 1) (c + 1)), (N.eqb_spec (jf n) c); lia.
Qed.

Lemma cnt_shift_0 jf n : cnt (fun k => jf k + 1) 0 n = 0.
Proof.
  induction n using N.peano_ind; [reflexivity|]. rewrite <- N.add_1_r, cnt_succ, IHn.
  destruct (N.eqb_spec (jf n + 1) 0); lia.
Qed.
