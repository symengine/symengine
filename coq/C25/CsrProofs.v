(* C25 -- CSRMatrix::get: a binary search inside a sorted row. *)
From SE Require Export C25.CsrRows.
Local Open Scope N_scope.
Local Open Scope res_scope.

Section Proofs.
Context {E : Type}.
Variable Ops : eops E.
Notation mat := (csr E).
Notation entry := (entry Ops).
Notation Inv := (Inv (E:=E)).

Lemma get_loop_spec (m : mat) i c : wf m -> i < crow m -> row_sorted m i -> lenN (cj m) < 2 ^ 31 ->
  forall fuel rs re,
    (N.to_nat (re - rs) < fuel)%nat ->
    pN m i <= rs -> re <= pN m (i + 1) ->
    (forall t, pN m i <= t -> t < rs -> nthN (cj m) t 0 < c) ->
    (forall t, re <= t -> t < pN m (i + 1) -> c < nthN (cj m) t 0) ->
    get_loop Ops fuel (cj m) (cx m) c rs re = Ok (entry m i c).
Proof.
  intros Hwf Hi Hs Hsmall.
  assert (Hn : pN m (i + 1) <= lenN (cj m)) by (apply pN_le_nnz; [assumption|lia]).
  assert (Hx : lenN (cx m) = lenN (cj m)) by (destruct Hwf as (_ & _ & _ & _ & H); exact H).
  induction fuel; intros rs re Hf H1 H2 Hlo Hhi; [lia|].
  cbn [get_loop].
  destruct (N.ltb_spec rs re) as [Hlt|Hge].
  - rewrite uadd_small by lia.
    set (k := (rs + re) / 2). assert (Hk : rs <= k /\ k < re) by (unfold k; pose proof (half_spec rs re Hlt); lia).
    rewrite (getN_ok (cj m) k 0) by lia. cbn [bind].
    destruct (N.eqb_spec (nthN (cj m) k 0) c) as [Heq|Hne].
    + rewrite (getN_ok (cx m) k (ezero Ops)) by lia. f_equal. symmetry.
      apply entry_hit; [assumption|lia|lia|assumption].
    + destruct (N.ltb_spec (nthN (cj m) k 0) c) as [Hl|Hg].
      * rewrite uadd_small by lia. apply IHfuel; [lia|lia|lia| |assumption].
        intros t T1 T2. destruct (N.eq_dec t k) as [->|]; [assumption|].
        specialize (Hs t k T1 ltac:(lia) ltac:(lia)). lia.
      * apply IHfuel; [lia|lia|lia|assumption|].
        intros t T1 T2. destruct (N.eq_dec t k) as [->|]; [lia|].
        specialize (Hs k t ltac:(lia) ltac:(lia) T2). lia.
  - f_equal. symmetry. apply entry_miss. intros t T1 T2.
    destruct (N.lt_ge_cases t rs).
    + specialize (Hlo t T1 ltac:(lia)). lia.
    + specialize (Hhi t ltac:(lia) T2). lia.
Qed.

Theorem get_correct (m : mat) i c : wf m -> lenN (cj m) < 2 ^ 31 -> crow m < 2 ^ 31 ->
  i < crow m -> row_sorted m i -> get Ops m i c = Ok (entry m i c).
Proof.
  intros Hwf Hsmall Hrow Hi Hs. unfold get.
  rewrite (getN_p m i Hwf) by lia. cbn [bind].
  rewrite uadd_small by lia. rewrite (getN_p m (i + 1) Hwf) by lia. cbn [bind].
  destruct (N.eqb_spec (pN m i) (pN m (i + 1))) as [Heq|Hne].
  - f_equal. symmetry. apply entry_miss. intros; lia.
  - apply (get_loop_spec m i c Hwf Hi Hs Hsmall); try lia; intros; lia.
Qed.

Theorem get_spec (m : mat) i c : Inv m -> i < crow m -> get Ops m i c = Ok (entry m i c).
Proof.
  intros HI Hi. destruct (Inv_small Ops m HI) as (H1 & H2). destruct HI as ((Hwf & Hs) & _).
  apply get_correct; auto.
Qed.

End Proofs.
