(* C25 obligation: csr_binop_csr_canonical (add, subtract, elementwise product: any f with f 0 0 = 0) on canonical operands of equal shape: canonical result, pointwise semantics. *)
From SE Require Import C25.CsrBinop.
Local Open Scope N_scope.
Theorem C25_binop_spec :
  forall (E : Type) (Ops : eops E) (f : E -> E -> E),
    f (ezero Ops) (ezero Ops) = ezero Ops -> zero_test_sound Ops ->
    forall A B C : csr E,
      Inv A -> Inv B -> crow B = crow A -> ccol B = ccol A ->
      lenN (cp C) = crow A + 1 -> crow C = crow A -> ccol C = ccol A ->
      exists R : csr E,
        binop Ops f A B C = Ok R /\ Inv R /\ crow R = crow A /\ ccol R = ccol A /\
        (forall i c : N, i < crow A -> entry Ops R i c = f (entry Ops A i c) (entry Ops B i c)).
Proof. exact @binop_spec. Qed.
Print Assumptions C25_binop_spec.
