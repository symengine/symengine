(* C25 obligation: after EVERY history of in-range set/get operations from any canonical matrix: every call succeeds, every intermediate matrix satisfies the invariant and equals the dense mirror, every get returns the mirror's value. *)
From SE Require Import C25.CsrSet.
Local Open Scope N_scope.
Theorem C25_history_spec :
  forall (E : Type) (Ops : eops E),
    zero_test_sound Ops ->
    forall (ops : list hop) (m : csr E),
      Inv m -> Forall (hop_in_range (crow m) (ccol m)) ops ->
      hist_ok Ops (crow m) (ccol m) (entry Ops m) ops (hrun Ops m ops).
Proof. exact @history_spec. Qed.
Print Assumptions C25_history_spec.
