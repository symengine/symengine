(* C25 obligation: csr_has_canonical_format (with csr_has_sorted_indices and csr_has_duplicates) decides: monotone row pointers and strictly increasing column indices in every row. *)
From SE Require Import C25.CsrCanon.
Local Open Scope N_scope.
Theorem C25_has_canonical_format_spec :
  forall (E : Type) (m : csr E),
    lenN (cp m) = crow m + 1 -> crow m < 2 ^ 31 -> lenN (cj m) < 2 ^ 31 -> pN m (crow m) = lenN (cj m) ->
    exists r : bool,
      has_canonical_format (cp m) (cj m) (crow m) = Ok r /\
      (r = true <->
       (forall i : N, i < crow m -> pN m i <= pN m (i + 1)) /\ (forall i : N, i < crow m -> row_sorted m i)).
Proof. exact @has_canonical_format_spec. Qed.
Print Assumptions C25_has_canonical_format_spec.
