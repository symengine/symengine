(* C25 obligation: csr_scale_columns with non-zero factors: same pattern, canonical, every entry multiplied by its column's factor. *)
From SE Require Import C25.CsrMisc.
Local Open Scope N_scope.
Theorem C25_scale_columns_spec :
  forall (E : Type) (Ops : eops E) (A : csr E) (X : list E),
    (forall a : E, emul Ops (ezero Ops) a = ezero Ops) ->
    Inv A -> lenN X = ccol A ->
    (forall c : N, c < ccol A -> eis_zero Ops (nthN X c (ezero Ops)) = false) ->
    exists R : csr E,
      scale_columns Ops A X = Ok R /\ Inv R /\ crow R = crow A /\ ccol R = ccol A /\ cp R = cp A /\ cj R = cj A /\
      (forall i c : N, i < crow A -> entry Ops R i c = emul Ops (entry Ops A i c) (nthN X c (ezero Ops))).
Proof. exact @scale_columns_spec. Qed.
Print Assumptions C25_scale_columns_spec.
