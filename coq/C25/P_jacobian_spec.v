(* C25 obligation: CSRMatrix::jacobian, given the table d of the derivatives exprs[i]->diff(x[c]): canonical matrix whose entries are the table's entries (zeros not stored). *)
From SE Require Import C25.CsrJac.
Local Open Scope N_scope.
Theorem C25_jacobian_spec :
  forall (E : Type) (Ops : eops E),
    zero_test_sound Ops ->
    forall (d : list (list E)) (ncols : N),
      lenN d < 2 ^ 31 -> ncols < 2 ^ 31 -> lenN d * ncols < 2 ^ 31 ->
      (forall i : N, i < lenN d -> lenN (nthN d i []) = ncols) ->
      exists R : csr E,
        jacobian Ops d ncols = Ok R /\ Inv R /\ crow R = lenN d /\ ccol R = ncols /\
        (forall i c : N, i < lenN d -> c < ncols -> entry Ops R i c = nthN (nthN d i []) c (ezero Ops)).
Proof. exact @jacobian_spec. Qed.
Print Assumptions C25_jacobian_spec.
