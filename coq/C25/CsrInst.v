(* C25 -- the Gaussian-integer instance used for extraction satisfies the laws assumed by the
   theorems; a boolean checker for the invariant (to exhibit concrete matrices); the inputs
   that refuted the properties on the unrepaired code, now evaluated on the repaired model. *)
From SE Require Export C25.CsrSet C25.CsrCanon.
Local Open Scope N_scope.

Lemma gi_zero_test_sound : zero_test_sound gi_ops.
Proof.
  intros [a b]. unfold gi_ops, gi_is_zero; cbn [eis_zero ezero fst snd]. intros H.
  apply andb_true_iff in H. destruct H as (H1 & H2). apply Z.eqb_eq in H1, H2. subst. reflexivity.
Qed.

Lemma gi_zero_is_zero : zero_is_zero gi_ops.
Proof. reflexivity. Qed.

Lemma gi_conj_zero : conj_zero gi_ops.
Proof. reflexivity. Qed.

Lemma gi_comm_monoid : comm_monoid gi_ops.
Proof.
  split; unfold gi_ops, gi_add, gi_zero; cbn [eadd ezero].
  - intros [a b] [c d]; cbn [fst snd]; f_equal; lia.
  - intros [a b] [c d] [e f]; cbn [fst snd]; f_equal; lia.
  - intros [a b]; cbn [fst snd]; f_equal; lia.
Qed.

Lemma gi_semiring : semiring gi_ops.
Proof.
  split; [exact gi_comm_monoid| | | |]; unfold gi_ops, gi_add, gi_mul, gi_zero; cbn [eadd emul ezero].
  - intros [a b]; cbn [fst snd]; f_equal; lia.
  - intros [a b]; cbn [fst snd]; f_equal; lia.
  - intros [a b] [c d] [e f]; cbn [fst snd]; f_equal; ring.
  - intros [a b] [c d] [e f]; cbn [fst snd]; f_equal; ring.
Qed.

Lemma gi_mul_0_l : forall a, emul gi_ops (ezero gi_ops) a = ezero gi_ops.
Proof. exact (mul_0_l gi_ops gi_semiring). Qed.

(* a boolean checker for Inv (to exhibit concrete matrices) *)
Section Checker.
Context {E : Type}.
Definition inv_b (m : csr E) : bool :=
  match is_canonical m with Ok true => true | _ => false end
  && forallb (fun c => c <? ccol m) (cj m)
  && (crow m <? 2 ^ 31) && (ccol m <? 2 ^ 31) && (crow m * ccol m <? 2 ^ 31) && (lenN (cj m) <? 2 ^ 31).

Lemma inv_b_sound (m : csr E) : inv_b m = true -> Inv m.
Proof.
  unfold inv_b. rewrite !andb_true_iff.
  intros (((((H1 & H4) & H5) & H6) & H7) & H8).
  destruct (is_canonical m) as [[|]| | |] eqn:Hc; try discriminate.
  apply N.ltb_lt in H5, H6, H7, H8.
  split; [|split].
  - apply is_canonical_sound; assumption.
  - intros k Hk. rewrite forallb_forall in H4.
    apply N.ltb_lt. apply H4. unfold nthN. apply nth_In. unfold lenN in Hk. lia.
  - repeat split; assumption.
Qed.
End Checker.

(* the inputs that exposed the defects of the unrepaired code
   (conjugate of a non-square matrix, csr_diagonal on the empty matrix / on [[0,1]] / with an empty
   row, csr_matmat with B wider than A and with an unsorted product, is_canonical with
   non-monotone row pointers of an empty matrix): the repaired code handles them *)
Local Open Scope Z_scope.
Definition g (a : Z) : gi := (a, 0).

Definition W_conj : csr gi := Build_csr [0; 1]%N [1]%N [(1, 2)] 1 2.
Definition W_diag1 : csr gi := Build_csr [0; 1]%N [1]%N [g 1] 1 2.
Definition W_diag2 : csr gi := Build_csr [0; 0; 1]%N [0]%N [g (-2)] 2 1.
Definition W_mmA1 : csr gi := Build_csr [0; 1; 2]%N [0; 0]%N [g 1; g 2] 2 1.
Definition W_mmB1 : csr gi := Build_csr [0; 2]%N [0; 2]%N [g 3; g 4] 1 3.
Definition W_mmA2 : csr gi := Build_csr [0; 2; 3]%N [0; 1; 1]%N [g 1; g 2; g 5] 2 2.
Definition W_mmB2 : csr gi := Build_csr [0; 2; 4]%N [0; 1; 0; 1]%N [g 3; g 4; g 1; g 1] 2 2.
Definition W_canon : csr gi := Build_csr [0; 5; 0]%N [] [] 2 2.

Example former_witnesses_repaired :
  conjugate gi_ops W_conj = Build_csr [0; 1]%N [1]%N [(1, -2)] 1 2 /\
  diagonal gi_ops (mk_zero 2 2) = Ok [g 0; g 0] /\
  diagonal gi_ops W_diag1 = Ok [g 0] /\
  diagonal gi_ops W_diag2 = Ok [g 0] /\
  matmat gi_ops W_mmA1 W_mmB1 = Ok (Build_csr [0; 2; 4]%N [0; 2; 0; 2]%N [g 3; g 4; g 6; g 8] 2 3) /\
  matmat gi_ops W_mmA2 W_mmB2 = Ok (Build_csr [0; 2; 4]%N [0; 1; 0; 1]%N [g 5; g 6; g 5; g 5] 2 2) /\
  is_canonical W_canon = Ok false.
Proof. vm_compute. repeat split; reflexivity. Qed.
Local Close Scope Z_scope.
