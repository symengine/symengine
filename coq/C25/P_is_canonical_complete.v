(* C25 obligation: CSRMatrix::is_canonical accepts every canonical matrix. *)
From SE Require Import C25.CsrCanon.
Local Open Scope N_scope.
Theorem C25_is_canonical_complete :
  forall (E : Type) (m : csr E),
    canon m -> crow m < 2 ^ 31 -> lenN (cj m) < 2 ^ 31 -> is_canonical m = Ok true.
Proof. exact @is_canonical_complete. Qed.
Print Assumptions C25_is_canonical_complete.
