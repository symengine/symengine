(* C25 obligation: csr_scale_rows throws (SymEngineException) as soon as a scaling factor is zero. *)
From SE Require Import C25.CsrMisc.
Local Open Scope N_scope.
Theorem C25_scale_rows_zero :
  forall (E : Type) (Ops : eops E) (A : csr E) (X : list E) (i0 : N),
    Inv A -> lenN X = crow A -> i0 < crow A ->
    eis_zero Ops (nthN X i0 (ezero Ops)) = true ->
    (forall i : N, i < i0 -> eis_zero Ops (nthN X i (ezero Ops)) = false) ->
    scale_rows Ops A X = ErrExn EXN_SYMENGINE.
Proof. exact @scale_rows_zero. Qed.
Print Assumptions C25_scale_rows_zero.
