(* C25 -- csr_matmat, part 1: generic lemmas (discovery lists, sums over
   a commutative monoid, the algebra behind the entry equation). *)
From SE Require Export C25.CsrFromCoo2.
Local Open Scope N_scope.
Local Open Scope res_scope.

Lemma flat_map_map {X Y Z} (f : Y -> list Z) (h : X -> Y) l :
  flat_map f (map h l) = flat_map (fun x => f (h x)) l.
Proof. induction l; cbn [flat_map map]; [reflexivity|]. f_equal; assumption. Qed.

Lemma map_flat_map {X Y Z} (f : X -> list Y) (h : Y -> Z) l :
  map h (flat_map f l) = flat_map (fun x => map h (f x)) l.
Proof. induction l; cbn [flat_map map]; [reflexivity|]. rewrite map_app. f_equal; assumption. Qed.

Lemma in_flat_map_fst {X Y} (g : X -> list (N * Y)) l k :
  In k (map fst (flat_map g l)) <-> exists x, In x l /\ In k (map fst (g x)).
Proof.
  rewrite in_map_iff. split.
  - intros (y & <- & Hy). apply in_flat_map in Hy as (x & Hx & Hy). exists x. split; [assumption|].
    apply in_map. assumption.
  - intros (x & Hx & Hk). apply in_map_iff in Hk as (y & <- & Hy). exists y. split; [reflexivity|].
    apply in_flat_map. exists x. split; assumption.
Qed.

Lemma lenN_length {A} (l : list A) : N.of_nat (length l) = lenN l.
Proof. reflexivity. Qed.

Lemma zidx_of_N k : zidx (Z.of_N k) = k.
Proof. unfold zidx. destruct (Z.ltb_spec (Z.of_N k) 0); lia. Qed.

(* discovery list: distinct elements, most recent first *)
Definition memN (k : N) (D : list N) : bool := existsb (N.eqb k) D.

Lemma memN_spec k D : memN k D = true <-> In k D.
Proof.
  unfold memN. rewrite existsb_exists. split.
  - intros (x & Hx & He). apply N.eqb_eq in He. subst. assumption.
  - intros H. exists k. split; [assumption|apply N.eqb_refl].
Qed.

Lemma memN_false k D : memN k D = false <-> ~ In k D.
Proof. rewrite <- memN_spec. destruct (memN k D); split; congruence. Qed.

Definition disc_step (D : list N) (k : N) : list N := if memN k D then D else k :: D.
Definition disc (L : list N) : list N := fold_left disc_step L [].

Lemma disc_snoc L k : disc (L ++ [k]) = disc_step (disc L) k.
Proof. unfold disc. rewrite fold_left_app. reflexivity. Qed.

Lemma disc_in L k : In k (disc L) <-> In k L.
Proof.
  induction L as [|x L IH] using rev_ind; [reflexivity|].
  rewrite disc_snoc, in_app_iff. unfold disc_step. cbn [In].
  destruct (memN x (disc L)) eqn:Hm.
  - apply memN_spec in Hm. split; [tauto|]. intros [H|[<-|[]]]; tauto.
  - cbn [In]. tauto.
Qed.

Lemma disc_nodup L : NoDup (disc L).
Proof.
  induction L as [|x L IH] using rev_ind; [constructor|].
  rewrite disc_snoc. unfold disc_step.
  destruct (memN x (disc L)) eqn:Hm; [assumption|].
  apply memN_false in Hm. constructor; assumption.
Qed.

Lemma nodup_bounded (D : list N) m : NoDup D -> (forall k, In k D -> k < m) -> lenN D <= m.
Proof.
  intros Hn Hb.
  assert (H : (length D <= length (Nseq 0 (N.to_nat m)))%nat).
  { apply NoDup_incl_length; [assumption|]. intros k Hk. apply in_Nseq. specialize (Hb k Hk). lia. }
  rewrite Nseq_length in H. unfold lenN. lia.
Qed.

Lemma memN_app k l1 l2 : memN k (l1 ++ l2) = memN k l1 || memN k l2.
Proof. apply existsb_app. Qed.

Lemma memN_single k x : memN k [x] = (k =? x).
Proof. unfold memN. cbn [existsb]. apply orb_false_r. Qed.

Lemma memN_disc k L : memN k (disc L) = memN k L.
Proof.
  destruct (memN k L) eqn:H.
  - apply memN_spec. apply disc_in. apply memN_spec. assumption.
  - apply memN_false. rewrite disc_in. apply memN_false. assumption.
Qed.

(* a vector entry reset for k and for the members of D *)
Lemma nthN_updn_memN {X} (l : list X) k z D c : k < lenN l ->
  (if memN c D then z else nthN (updn (N.to_nat k) l z) c z) = (if memN c (k :: D) then z else nthN l c z).
Proof.
  intros Hk. rewrite nthN_updn by exact Hk. unfold memN. cbn [existsb].
  destruct (N.eqb_spec c k); cbn [orb]; [destruct (existsb (N.eqb c) D)|]; reflexivity.
Qed.

Lemma disc_snoc_old L k : memN k L = true -> disc (L ++ [k]) = disc L.
Proof. intros H. rewrite disc_snoc. unfold disc_step. rewrite memN_disc, H. reflexivity. Qed.

Lemma disc_snoc_new L k : memN k L = false -> disc (L ++ [k]) = k :: disc L.
Proof. intros H. rewrite disc_snoc. unfold disc_step. rewrite memN_disc, H. reflexivity. Qed.

Lemma disc_bounded L m : (forall k, In k L -> k < m) -> lenN (disc L) <= m.
Proof. intros H. apply nodup_bounded; [apply disc_nodup|]. intros k Hk. apply H, disc_in, Hk. Qed.

Section Alg.
Context {E : Type}.
Variable Ops : eops E.
Hypothesis Hsr : semiring Ops.
Notation zero := (ezero Ops).
Notation esum := (esum Ops).
Notation lookup := (lookup Ops).

Let Hm : comm_monoid Ops := sr_monoid Ops Hsr.

Lemma add_0_l a : eadd Ops zero a = a.
Proof. rewrite (add_comm Ops Hm). apply (add_0_r Ops Hm). Qed.

Lemma esum_app l1 l2 : esum (l1 ++ l2) = eadd Ops (esum l1) (esum l2).
Proof.
  induction l1 as [|a l1 IH]; cbn [app CsrSpec.esum fold_right].
  - symmetry. apply add_0_l.
  - fold (esum (l1 ++ l2)). fold (esum l1). rewrite IH. apply (add_assoc Ops Hm).
Qed.

Lemma esum_cons a l : esum (a :: l) = eadd Ops a (esum l).
Proof. reflexivity. Qed.

(* the sum of the values given for column k in a list of (column, value) items *)
Definition csum (k : N) (L : list (N * E)) : E :=
  esum (map snd (filter (fun x => fst x =? k) L)).

Lemma csum_nil k : csum k [] = zero.
Proof. reflexivity. Qed.

Lemma csum_app k L1 L2 : csum k (L1 ++ L2) = eadd Ops (csum k L1) (csum k L2).
Proof. unfold csum. rewrite filter_app, map_app. apply esum_app. Qed.

Lemma csum_cons k x L :
  csum k (x :: L) = if fst x =? k then eadd Ops (snd x) (csum k L) else csum k L.
Proof. unfold csum. cbn [filter]. destruct (fst x =? k); reflexivity. Qed.

Lemma csum_snoc k L x :
  csum k (L ++ [x]) = if fst x =? k then eadd Ops (csum k L) (snd x) else csum k L.
Proof.
  rewrite csum_app, csum_cons, csum_nil.
  destruct (fst x =? k); rewrite (add_0_r Ops Hm); reflexivity.
Qed.

Lemma csum_notin k L : ~ In k (map fst L) -> csum k L = zero.
Proof.
  induction L as [|x L IH]; intros H; [reflexivity|].
  rewrite csum_cons. cbn [map In] in H.
  destruct (N.eqb_spec (fst x) k); [tauto|]. apply IH. tauto.
Qed.

Lemma csum_flat_map {X} k (g : X -> list (N * E)) l :
  csum k (flat_map g l) = esum (map (fun x => csum k (g x)) l).
Proof.
  induction l as [|x l IH]; cbn [flat_map map]; [reflexivity|].
  rewrite csum_app, esum_cons, IH. reflexivity.
Qed.

Lemma lookup_nil c : lookup c [] = zero.
Proof. reflexivity. Qed.

Lemma lookup_notin c l : ~ In c (map fst l) -> lookup c l = zero.
Proof.
  induction l as [|x l IH]; intros H; [reflexivity|].
  rewrite lookup_cons. cbn [map In] in H.
  destruct (N.eqb_spec (fst x) c); [tauto|]. apply IH; tauto.
Qed.

(* a row scaled by v, summed at column k *)
Lemma csum_scaled k v (l : list (N * E)) : NoDup (map fst l) ->
  csum k (map (fun y => (fst y, emul Ops v (snd y))) l) = emul Ops v (lookup k l).
Proof.
  induction l as [|a l IH]; intros Hn.
  - cbn [map]. rewrite csum_nil, lookup_nil. symmetry. apply (mul_0_r Ops Hsr).
  - cbn [map] in *. inversion Hn as [|? ? Hni Hn']; subst.
    rewrite csum_cons, lookup_cons. cbn [fst snd].
    destruct (N.eqb_spec (fst a) k) as [Heq|Hne].
    + rewrite csum_notin; [apply (add_0_r Ops Hm)|].
      rewrite map_map. cbn [fst]. subst k. exact Hni.
    + apply IH; assumption.
Qed.

Lemma srt_nodup (l : list (N * E)) : srt N.lt l -> NoDup (map fst l).
Proof.
  induction l as [|a l IH]; cbn [srt map]; [constructor|]. intros (Hf & Hs). constructor; [|apply IH, Hs].
  intros Hin. apply in_map_iff in Hin as (b & Hb & Hin). specialize (Hf b Hin). lia.
Qed.

(* a sum over the stored entries of a sorted row = the sum over all columns *)
Lemma esum_sorted_row (G : N -> E) : forall n a (l : list (N * E)),
  srt N.lt l ->
  (forall x, In x l -> a <= fst x /\ fst x < a + N.of_nat n) ->
  esum (map (fun x => emul Ops (snd x) (G (fst x))) l) =
  esum (map (fun j => emul Ops (lookup j l) (G j)) (Nseq a n)).
Proof.
  induction n; intros a l Hs Hb.
  - destruct l as [|x l]; [reflexivity|]. specialize (Hb x (or_introl eq_refl)). lia.
  - cbn [Nseq map]. rewrite esum_cons.
    destruct l as [|x l].
    + rewrite lookup_nil, (mul_0_l Ops Hsr), add_0_l.
      apply (IHn (a + 1) []); [exact I|intros ? []].
    + destruct Hs as (Hf & Hs'). rewrite lookup_cons.
      destruct (N.eqb_spec (fst x) a) as [Heq|Hne].
      * cbn [map]. rewrite esum_cons, Heq. f_equal.
        rewrite (IHn (a + 1) l Hs').
        -- f_equal. apply map_ext_in. intros j Hj. apply in_Nseq in Hj.
           rewrite lookup_cons. destruct (N.eqb_spec (fst x) j); [lia|reflexivity].
        -- intros y Hy. pose proof (Hb y (or_intror Hy)) as Hy'. specialize (Hf y Hy). lia.
      * pose proof (Hb x (or_introl eq_refl)) as Hx.
        rewrite lookup_notin, (mul_0_l Ops Hsr), add_0_l.
        -- apply (IHn (a + 1) (x :: l)); [exact (conj Hf Hs')|].
           intros y [<-|Hy]; [lia|]. pose proof (Hb y (or_intror Hy)). specialize (Hf y Hy). lia.
        -- intros Hin. apply in_map_iff in Hin as (y & Hy1 & Hy2). specialize (Hf y Hy2). lia.
Qed.

Notation row_of := (row_of Ops).

(* the items of row i of the product, in the order the loops visit them *)
Definition items_at (A B : csr E) (jj : N) : list (N * E) :=
  map (fun kk => (nthN (cj B) kk 0, emul Ops (nthN (cx A) jj zero) (nthN (cx B) kk zero)))
      (Nseq (pN B (nthN (cj A) jj 0))
            (N.to_nat (pN B (nthN (cj A) jj 0 + 1) - pN B (nthN (cj A) jj 0)))).

Definition items (A B : csr E) (i : N) : list (N * E) :=
  flat_map (items_at A B) (Nseq (pN A i) (N.to_nat (pN A (i + 1) - pN A i))).

Lemma items_rows (A B : csr E) i :
  items A B i =
  flat_map (fun x => map (fun y => (fst y, emul Ops (snd x) (snd y))) (row_of B (fst x))) (row_of A i).
Proof.
  unfold items, items_at, CsrSpec.row_of. rewrite flat_map_map.
  apply flat_map_ext. intros jj. cbn [fst snd]. rewrite map_map. reflexivity.
Qed.

Lemma items_col_lt (A B : csr E) i k : Inv A -> Inv B -> ccol A = crow B -> i < crow A ->
  In k (map fst (items A B i)) -> k < ccol B.
Proof.
  intros ((HwA & _) & HcA & _) ((HwB & _) & HcB & _) Hd Hi Hk.
  rewrite items_rows in Hk. apply in_flat_map_fst in Hk as (x & Hx & Hk).
  rewrite map_map in Hk. cbn [fst] in Hk. apply in_map_iff in Hk as (y & <- & Hy).
  apply (row_of_col_lt Ops B (fst x)); try assumption.
  rewrite <- Hd. apply (row_of_col_lt Ops A i); assumption.
Qed.

Theorem csum_items (A B : csr E) i k : Inv A -> Inv B -> ccol A = crow B -> i < crow A ->
  csum k (items A B i) =
  dsum Ops (ccol A) (fun j => emul Ops (entry Ops A i j) (entry Ops B j k)).
Proof.
  intros ((HwA & HsA) & HcA & _) ((HwB & HsB) & HcB & _) Hd Hi.
  rewrite items_rows, csum_flat_map.
  rewrite (map_ext_in _ (fun x => emul Ops (snd x) (entry Ops B (fst x) k))).
  - unfold CsrSpec.dsum, CsrSpec.entry.
    apply (esum_sorted_row (fun j => lookup k (row_of B j))).
    + apply (row_sorted_srt Ops), HsA, Hi.
    + intros x Hx. pose proof (row_of_col_lt Ops A i x HwA HcA Hi Hx). lia.
  - intros x Hx. apply csum_scaled. apply srt_nodup, (row_sorted_srt Ops), HsB.
    rewrite <- Hd. apply (row_of_col_lt Ops A i); assumption.
Qed.

End Alg.
