(* C25 -- csr_binop_csr_canonical (add, subtract, elementwise product ...): the result is
   canonical and is the pointwise operation on the dense matrices. *)
From SE Require Export C25.CsrRows C25.CsrCanon.
Local Open Scope N_scope.
Local Open Scope res_scope.

Section Binop.
Context {E : Type}.
Variable Ops : eops E.
Notation mat := (csr E).
Notation entry := (entry Ops).
Notation row_of := (row_of Ops).
Notation lookup := (lookup Ops).
Notation segN := (segN Ops).
Notation Inv := (Inv (E:=E)).
Notation row_in := (row_in (E:=E)).
Variable f : E -> E -> E.

Definition keep (c : N) (r : E) (l : list (N * E)) : list (N * E) :=
  if negb (eis_zero Ops r) then (c, r) :: l else l.

Fixpoint merge (ra rb : list (N * E)) {struct ra} : list (N * E) :=
  match ra with
  | [] => (fix tl (rb : list (N * E)) : list (N * E) :=
             match rb with
             | [] => []
             | eb :: rb' => keep (fst eb) (f (ezero Ops) (snd eb)) (tl rb')
             end) rb
  | ea :: ra' =>
      (fix go (rb : list (N * E)) : list (N * E) :=
         match rb with
         | [] => keep (fst ea) (f (snd ea) (ezero Ops)) (merge ra' [])
         | eb :: rb' =>
             if fst ea =? fst eb then keep (fst ea) (f (snd ea) (snd eb)) (merge ra' rb')
             else if fst ea <? fst eb then keep (fst ea) (f (snd ea) (ezero Ops)) (merge ra' rb)
             else keep (fst eb) (f (ezero Ops) (snd eb)) (go rb')
         end) rb
  end.

Lemma merge_nil_cons eb rb : merge [] (eb :: rb) = keep (fst eb) (f (ezero Ops) (snd eb)) (merge [] rb).
Proof. reflexivity. Qed.
Lemma merge_cons_nil ea ra : merge (ea :: ra) [] = keep (fst ea) (f (snd ea) (ezero Ops)) (merge ra []).
Proof. reflexivity. Qed.
Lemma merge_cons_cons ea ra eb rb :
  merge (ea :: ra) (eb :: rb) =
    if fst ea =? fst eb then keep (fst ea) (f (snd ea) (snd eb)) (merge ra rb)
    else if fst ea <? fst eb then keep (fst ea) (f (snd ea) (ezero Ops)) (merge ra (eb :: rb))
    else keep (fst eb) (f (ezero Ops) (snd eb)) (merge (ea :: ra) rb).
Proof. reflexivity. Qed.

Lemma keep_row_in lo hi c r l : lo <= c -> c < hi -> row_in (c + 1) hi l -> row_in lo hi (keep c r l).
Proof.
  intros H1 H2 Hb. unfold keep. destruct (eis_zero Ops r); cbn [negb].
  - eapply row_in_weaken; [|eassumption]. lia.
  - apply row_in_cons. cbn [fst]. auto.
Qed.

Lemma merge_row_in hi : forall ra rb lo, row_in lo hi ra -> row_in lo hi rb -> row_in lo hi (merge ra rb).
Proof.
  induction ra as [|ea ra IHa].
  - induction rb as [|eb rb IHb]; intros lo Ha Hb; [apply row_in_nil|].
    rewrite merge_nil_cons. apply row_in_cons in Hb as (B1 & B2 & B3).
    apply keep_row_in; try assumption. apply IHb; [apply row_in_nil|assumption].
  - induction rb as [|eb rb IHb]; intros lo Ha Hb.
    + rewrite merge_cons_nil. apply row_in_cons in Ha as (A1 & A2 & A3).
      apply keep_row_in; try assumption. apply IHa; [assumption|apply row_in_nil].
    + rewrite merge_cons_cons. pose proof Ha as Ha0. pose proof Hb as Hb0.
      apply row_in_cons in Ha as (A1 & A2 & A3). apply row_in_cons in Hb as (B1 & B2 & B3).
      destruct (N.eqb_spec (fst ea) (fst eb)) as [Heq|Hne].
      * apply keep_row_in; try assumption. apply IHa; [assumption|]. rewrite Heq. assumption.
      * destruct (N.ltb_spec (fst ea) (fst eb)).
        -- apply keep_row_in; try assumption. apply IHa; [assumption|].
           apply row_in_cons. split; [lia|split; assumption].
        -- apply keep_row_in; try assumption. apply IHb; [|assumption].
           apply row_in_cons. split; [lia|split; assumption].
Qed.

Hypothesis f00 : f (ezero Ops) (ezero Ops) = ezero Ops.
Hypothesis Hz : zero_test_sound Ops.

Lemma lookup_keep hi c r l c' : row_in (c + 1) hi l ->
  lookup c' (keep c r l) = if c =? c' then r else lookup c' l.
Proof.
  intros Hb. unfold keep. destruct (eis_zero Ops r) eqn:Hr; cbn [negb].
  - destruct (N.eqb_spec c c') as [->|]; [|reflexivity].
    rewrite (Hz r Hr). apply (lookup_below Ops (c' + 1) hi); [assumption|lia].
  - rewrite lookup_cons. reflexivity.
Qed.

Lemma merge_lookup hi c : forall ra rb lo, row_in lo hi ra -> row_in lo hi rb ->
  lookup c (merge ra rb) = f (lookup c ra) (lookup c rb).
Proof.
  induction ra as [|ea ra IHa].
  - induction rb as [|eb rb IHb]; intros lo Ha Hb.
    + cbn. unfold CsrSpec.lookup; cbn. symmetry; exact f00.
    + rewrite merge_nil_cons. apply row_in_cons in Hb as (B1 & B2 & B3).
      rewrite (lookup_keep hi) by (apply merge_row_in; [apply row_in_nil|assumption]).
      rewrite lookup_cons. destruct (N.eqb_spec (fst eb) c); [reflexivity|].
      apply (IHb (fst eb + 1)); [apply row_in_nil|assumption].
  - induction rb as [|eb rb IHb]; intros lo Ha Hb.
    + rewrite merge_cons_nil. apply row_in_cons in Ha as (A1 & A2 & A3).
      rewrite (lookup_keep hi) by (apply merge_row_in; [assumption|apply row_in_nil]).
      rewrite lookup_cons. destruct (N.eqb_spec (fst ea) c); [reflexivity|].
      apply (IHa [] (fst ea + 1)); [assumption|apply row_in_nil].
    + rewrite merge_cons_cons. pose proof Ha as Ha0. pose proof Hb as Hb0.
      apply row_in_cons in Ha as (A1 & A2 & A3). apply row_in_cons in Hb as (B1 & B2 & B3).
      destruct (N.eqb_spec (fst ea) (fst eb)) as [Heq|Hne].
      * rewrite (lookup_keep hi) by (apply merge_row_in; [assumption|rewrite Heq; assumption]).
        rewrite !lookup_cons. rewrite <- Heq.
        destruct (N.eqb_spec (fst ea) c); [reflexivity|].
        apply (IHa rb (fst ea + 1)); [assumption|rewrite Heq; assumption].
      * destruct (N.ltb_spec (fst ea) (fst eb)).
        -- assert (Hb1 : row_in (fst ea + 1) hi (eb :: rb)) by (apply row_in_cons; split; [lia|split; assumption]).
           rewrite (lookup_keep hi) by (apply merge_row_in; assumption).
           rewrite (lookup_cons Ops _ ea). destruct (N.eqb_spec (fst ea) c) as [Hc|].
           ++ rewrite (lookup_below Ops (fst ea + 1) hi (eb :: rb)) by (try assumption; lia). reflexivity.
           ++ apply (IHa (eb :: rb) (fst ea + 1)); assumption.
        -- assert (Ha1 : row_in (fst eb + 1) hi (ea :: ra)) by (apply row_in_cons; split; [lia|split; assumption]).
           rewrite (lookup_keep hi) by (apply merge_row_in; assumption).
           rewrite (lookup_cons Ops _ eb). destruct (N.eqb_spec (fst eb) c) as [Hc|].
           ++ rewrite (lookup_below Ops (fst eb + 1) hi (ea :: ra)) by (try assumption; lia). reflexivity.
           ++ apply (IHb (fst eb + 1)); assumption.
Qed.

Lemma push_nz_keep a b c oj ox nnz : nnz + lenN (keep c (f a b) []) < 4294967296 ->
  push_nz Ops f a b c (oj, ox, nnz) =
    (oj ++ map fst (keep c (f a b) []), ox ++ map snd (keep c (f a b) []), nnz + lenN (keep c (f a b) [])).
Proof.
  unfold push_nz, keep. destruct (eis_zero Ops (f a b)); cbn [negb map fst snd]; intros Hn.
  - rewrite !app_nil_r. f_equal. unfold lenN; cbn; lia.
  - unfold lenN in Hn; cbn [length] in Hn. rewrite uadd_small by lia. f_equal.
Qed.

Lemma keep_app c r l : keep c r l = keep c r [] ++ l.
Proof. unfold keep. destruct (eis_zero Ops r); reflexivity. Qed.

Lemma binop_row_spec (A B : mat) :
  lenN (cx A) = lenN (cj A) -> lenN (cj A) < 2 ^ 31 -> lenN (cx B) = lenN (cj B) -> lenN (cj B) < 2 ^ 31 ->
  forall fuel ap ae bp be oj ox nnz,
    (N.to_nat (ae - ap) + N.to_nat (be - bp) < fuel)%nat ->
    ap <= ae -> ae <= lenN (cj A) -> bp <= be -> be <= lenN (cj B) ->
    forall r, r = merge (segN (cj A) (cx A) ap ae) (segN (cj B) (cx B) bp be) ->
    nnz + lenN r < 4294967296 ->
    binop_row Ops fuel f A B ap ae bp be (oj, ox, nnz) = Ok (oj ++ map fst r, ox ++ map snd r, nnz + lenN r).
Proof.
  intros LA SA LB SB. induction fuel; intros ap ae bp be oj ox nnz Hf A1 A2 B1 B2 r Er Hr; [lia|].
  (* every branch but the last pushes one candidate and goes on with the rest of the two rows *)
  assert (Step : forall ap' bp' a b c,
    (N.to_nat (ae - ap') + N.to_nat (be - bp') < fuel)%nat -> ap' <= ae -> bp' <= be ->
    r = keep c (f a b) (merge (segN (cj A) (cx A) ap' ae) (segN (cj B) (cx B) bp' be)) ->
    binop_row Ops fuel f A B ap' ae bp' be (push_nz Ops f a b c (oj, ox, nnz)) =
      Ok (oj ++ map fst r, ox ++ map snd r, nnz + lenN r)).
  { intros ap' bp' a b c Hf' A1' B1' Er'. rewrite keep_app in Er'. rewrite Er', lenN_app in Hr.
    assert (lenN (keep c (f a b) []) <= 1)
      by (unfold keep; destruct (eis_zero Ops (f a b)); unfold lenN; cbn; lia).
    rewrite push_nz_keep by lia.
    erewrite IHfuel; [|lia|lia|lia|lia|lia|reflexivity|lia].
    rewrite Er', !map_app, !app_assoc, lenN_app, N.add_assoc. reflexivity. }
  clear IHfuel Hr. cbn [binop_row].
  destruct (N.ltb_spec ap ae) as [Ha|Ha]; destruct (N.ltb_spec bp be) as [Hb|Hb]; cbn [andb].
  - (* both rows have entries left *)
    rewrite (segN_cons _ _ _ ap ae), (segN_cons _ _ _ bp be), merge_cons_cons in Er by lia. cbn [fst snd] in Er.
    rewrite (getN_ok (cj A) ap 0), (getN_ok (cj B) bp 0) by lia. cbn [bind].
    destruct (N.eqb_spec (nthN (cj A) ap 0) (nthN (cj B) bp 0)) as [Heq|Hne].
    + rewrite (getN_ok (cx A) ap (ezero Ops)), (getN_ok (cx B) bp (ezero Ops)) by lia. cbn [bind].
      rewrite !uadd_small by lia. apply Step; [lia|lia|lia|exact Er].
    + destruct (N.ltb_spec (nthN (cj A) ap 0) (nthN (cj B) bp 0)) as [Hlt|Hge].
      * rewrite (getN_ok (cx A) ap (ezero Ops)) by lia. cbn [bind]. rewrite !uadd_small by lia.
        apply Step; [lia|lia|lia|]. rewrite (segN_cons _ _ _ bp be) by lia. exact Er.
      * rewrite (getN_ok (cx B) bp (ezero Ops)) by lia. cbn [bind]. rewrite !uadd_small by lia.
        apply Step; [lia|lia|lia|]. rewrite (segN_cons _ _ _ ap ae) by lia. exact Er.
  - (* only A *)
    rewrite (segN_cons _ _ _ ap ae), (segN_nil _ _ _ bp be), merge_cons_nil in Er by lia. cbn [fst snd] in Er.
    rewrite (getN_ok (cx A) ap (ezero Ops)), (getN_ok (cj A) ap 0) by lia. cbn [bind].
    rewrite !uadd_small by lia. apply Step; [lia|lia|lia|]. rewrite (segN_nil _ _ _ bp be) by lia. exact Er.
  - (* only B *)
    rewrite (segN_cons _ _ _ bp be), (segN_nil _ _ _ ap ae), merge_nil_cons in Er by lia. cbn [fst snd] in Er.
    rewrite (getN_ok (cx B) bp (ezero Ops)), (getN_ok (cj B) bp 0) by lia. cbn [bind].
    rewrite !uadd_small by lia. apply Step; [lia|lia|lia|]. rewrite (segN_nil _ _ _ ap ae) by lia. exact Er.
  - (* done *)
    rewrite !segN_nil in Er by lia. subst r. cbn [merge map]. rewrite !app_nil_r, lenN_nil, N.add_0_r. reflexivity.
Qed.

Theorem binop_spec (A B C : mat) :
  Inv A -> Inv B -> crow B = crow A -> ccol B = ccol A ->
  lenN (cp C) = crow A + 1 -> crow C = crow A -> ccol C = ccol A ->
  exists R, binop Ops f A B C = Ok R /\ Inv R /\ crow R = crow A /\ ccol R = ccol A /\
    forall i c, i < crow A -> entry R i c = f (entry A i c) (entry B i c).
Proof.
  intros HA HB Hrow Hcol HpC HrC HcC.
  destruct (Inv_facts Ops A HA) as (WA & _ & _ & DA & A1 & A2 & LxA & _).
  destruct (Inv_facts Ops B HB) as (WB & _ & _ & _ & B1 & _ & LxB & _).
  set (row := crow A) in *. set (col := ccol A) in *.
  assert (Hdims : row < 2 ^ 31 /\ col < 2 ^ 31 /\ row * col < 2 ^ 31) by exact DA.
  set (rows := fun i => merge (row_of A i) (row_of B i)).
  assert (Hm : forall i, i < row -> row_in 0 col (rows i)).
  { intros i Hi. apply merge_row_in; [apply Inv_row_in; assumption|].
    rewrite <- Hcol. apply Inv_row_in; [assumption|lia]. }
  unfold binop. rewrite setN_ok by lia. cbn [bind]. fold row.
  match goal with |- context [for_range 0 row ?body ?s] =>
    destruct (for_range_inv (fun i (st : list N * list N * list E * N) => let '(p, oj, ox, nnz) := st in
                 lenN p = row + 1 /\ nnz = lenN oj /\ nnz <= i * col /\ built Ops rows i p oj ox)
              body 0 row s) as ([[[p1 oj] ox] nnz] & Hrun & P1 & -> & P3 & PB) end.
  - lia.
  - split; [rewrite lenN_updn by lia; exact HpC|]. split; [reflexivity|]. split; [lia|].
    refine (built_0 Ops rows _ _). rewrite nthN_updn by lia. reflexivity.
  - intros i [[[p oj] ox] nnz] _ I2 (P1 & -> & P3 & PB).
    rewrite (getN_p A i WA), (getN_p B i WB) by lia. cbn [bind]. rewrite uadd_small by lia.
    rewrite (getN_p A (i + 1) WA), (getN_p B (i + 1) WB) by lia. cbn [bind].
    pose proof (pN_le_nnz A WA (i + 1) ltac:(lia)). pose proof (pN_le_nnz B WB (i + 1) ltac:(lia)).
    assert (pN A i <= pN A (i + 1)) by (apply WA; lia).
    assert (pN B i <= pN B (i + 1)) by (apply WB; lia).
    pose proof (row_in_length _ 0 col ltac:(lia) (Hm i I2)) as Hr.
    erewrite (binop_row_spec A B LxA A1 LxB B1) with (r := rows i); [|lia|lia|lia|lia|lia|reflexivity|nia].
    cbn [bind]. rewrite setN_ok by lia. cbn [bind]. eexists; split; [reflexivity|].
    split; [rewrite lenN_updn by lia; exact P1|]. split; [rewrite lenN_app, lenN_map; reflexivity|].
    split; [nia|]. apply (built_step Ops rows i p); [exact PB| |rewrite nthN_updn, N.eqb_refl by lia; reflexivity].
    intros t Ht. rewrite nthN_updn by lia. destruct (N.eqb_spec t (i + 1)); [lia|reflexivity].
  - rewrite Hrun. cbn [bind].
    destruct (built_Inv Ops rows row col p1 oj ox PB P1) as (IR & HR); try lia.
    { exact Hm. }
    cbn zeta in IR, HR.
    (* the duplicate check finds nothing *)
    pose proof IR as ((_ & HsR) & _). destruct PB as (_ & _ & Pn & PB).
    destruct (has_duplicates_spec p1 oj row P1 ltac:(lia) ltac:(nia) (fun i Hi => proj1 (PB i Hi)) ltac:(lia))
      as (d & Hd & Hq).
    rewrite Hd. cbn [bind].
    destruct d.
    { exfalso. destruct (proj1 Hq eq_refl) as (i & Hi & t & T1 & T2 & T3).
      specialize (HsR i Hi t (t + 1) T1 ltac:(lia) T2). cbn [cj] in HsR. lia. }
    rewrite HrC, HcC. eexists; split; [reflexivity|]. split; [exact IR|]. split; [reflexivity|]. split; [reflexivity|].
    intros i c Hi. unfold CsrSpec.entry. rewrite HR by exact Hi.
    apply (merge_lookup col c _ _ 0).
    + apply Inv_row_in; assumption.
    + rewrite <- Hcol. apply Inv_row_in; [assumption|lia].
Qed.

End Binop.
