(* C25 -- from_coo, part 3: the counting sort by row of CSRMatrix::from_coo and the
   composition with csr_sort_indices and csr_sum_duplicates. *)
From SE Require Export C25.CsrFromCoo2 C25.CsrScatter.
Local Open Scope N_scope.
Local Open Scope res_scope.

(* a loop that writes an accumulator over p[0..n) while folding the old values into it:
   the running sum and the shift of the row pointers in from_coo *)
Lemma sweep_loop (upd : N -> N -> N) (F G : N -> N) n (p : list N) :
  n <= lenN p -> (forall r, r < n -> nthN p r 0 = G r) -> (forall i, i < n -> upd (F i) (G i) = F (i + 1)) ->
  exists p',
    for_range 0 n (fun i (st : list N * N) =>
             let '(p, acc) := st in
             do v <- getN p i;
             do p' <- setN p i acc;
             Ok (p', upd acc v)) (p, F 0) = Ok (p', F n) /\
    lenN p' = lenN p /\ (forall r, r < n -> nthN p' r 0 = F r) /\ (forall r, n <= r -> nthN p' r 0 = nthN p r 0).
Proof.
  intros Hn HG HF.
  match goal with |- context [for_range 0 n ?body ?s] =>
    destruct (for_range_inv
      (fun i (st : list N * N) => let '(q, acc) := st in
         lenN q = lenN p /\ acc = F i /\ (forall r, r < i -> nthN q r 0 = F r) /\
         (forall r, i <= r -> nthN q r 0 = nthN p r 0))
      body 0 n s) as ([p' acc] & Hf & L & -> & HA & HB) end.
  - lia.
  - split; [reflexivity|]. split; [reflexivity|]. split; [intros; lia|reflexivity].
  - intros i [q acc] _ Hi (L & -> & HA & HB).
    rewrite (getN_ok q i 0) by lia. cbn [bind]. rewrite setN_ok by lia. cbn [bind].
    eexists. split; [reflexivity|]. split; [rewrite lenN_updn by lia; exact L|].
    split; [rewrite HB, HG by lia; apply HF, Hi|]. split.
    + intros r Hr. rewrite nthN_updn by lia.
      destruct (N.eqb_spec r i) as [->|Hne]; [reflexivity|]. apply HA. lia.
    + intros r Hr. rewrite nthN_updn by lia.
      destruct (N.eqb_spec r i) as [->|Hne]; [lia|]. apply HB. lia.
  - exists p'. auto.
Qed.

Section FromCoo3.
Context {E : Type}.
Variable Ops : eops E.
Notation mat := (csr E).
Notation entry := (entry Ops).
Notation row_of := (row_of Ops).
Notation segN := (segN Ops).
Notation e0 := (ezero Ops).
Notation esum := (esum Ops).
Notation lsum := (lsum Ops).
Notation tri := (N * (N * E))%type.

Lemma fold_left_esum : comm_monoid Ops -> forall r v, fold_left (eadd Ops) r v = eadd Ops v (esum r).
Proof.
  intros [Hc Ha H0]. induction r as [|a r IH]; intros v; cbn [fold_left CsrSpec.esum fold_right].
  - symmetry. apply H0.
  - rewrite IH. symmetry. apply Ha.
Qed.

Lemma lsum_esum : comm_monoid Ops -> forall l, lsum l = esum l.
Proof.
  intros H [|v r]; [reflexivity|]. cbn [CsrFromCoo1.lsum]. apply fold_left_esum. assumption.
Qed.

Lemma esum_perm : comm_monoid Ops -> forall l l', Permutation l l' -> esum l = esum l'.
Proof.
  intros [Hc Ha H0] l l' HP. induction HP; cbn [CsrSpec.esum fold_right].
  - reflexivity.
  - f_equal. exact IHHP.
  - fold (esum l). rewrite !Ha. f_equal. apply Hc.
  - congruence.
Qed.

Lemma colvals_perm c (l l' : list (N * E)) : Permutation l l' -> Permutation (colvals c l) (colvals c l').
Proof.
  intros HP. induction HP.
  - apply Permutation_refl.
  - rewrite !colvals_cons. destruct (fst x =? c); [apply perm_skip|]; assumption.
  - rewrite !colvals_cons. destruct (fst x =? c), (fst y =? c);
      try apply perm_swap; try apply perm_skip; apply Permutation_refl.
  - eapply perm_trans; eassumption.
Qed.

(* the coordinate list as a list of (row, (column, value)) items *)
Lemma coo_values_rowl is js (xs : list E) i c :
  coo_values is js xs i c = colvals c (rowl (combine is (combine js xs)) i).
Proof.
  revert js xs. induction is as [|a is IH]; intros js xs; [reflexivity|].
  destruct js as [|b js]; [reflexivity|]. destruct xs as [|v xs]; [reflexivity|].
  cbn [coo_values combine]. unfold rowl. cbn [filter fst].
  destruct (a =? i); cbn [andb map snd].
  - rewrite colvals_cons. cbn [fst snd]. destruct (b =? c); [f_equal|]; apply IH.
  - apply IH.
Qed.

Section Loops.
Variables (row col : N) (is js : list N) (xs : list E).
Hypothesis HM : comm_monoid Ops.
Hypothesis Hrow : row < 2 ^ 31.
Hypothesis Hcol : col < 2 ^ 31.
Hypothesis Hrc : row * col < 2 ^ 31.
Hypothesis Hnnz : lenN xs < 2 ^ 31.
Hypothesis Hli : length is = length xs.
Hypothesis Hlj : length js = length xs.
Hypothesis His : Forall (fun i => i < row) is.
Hypothesis Hjs : Forall (fun c => c < col) js.

Let T : list tri := combine is (combine js xs).
Let nnz : N := lenN xs.
Let d : tri := (0, (0, e0)).
Let rf (n : N) : N := nthN is n 0.   (* the row of the n-th triple *)
Let B (i : N) : N := cntlt rf i nnz.

Lemma T_len : lenN T = nnz.
Proof. unfold T, nnz, lenN. rewrite !combine_length. lia. Qed.

Lemma T_nth n : nthN T n d = (nthN is n 0, (nthN js n 0, nthN xs n e0)).
Proof.
  unfold T, d, nthN. rewrite combine_nth by (rewrite combine_length; lia).
  rewrite combine_nth by lia. reflexivity.
Qed.

Lemma T_key n : n < nnz -> fst (nthN T n d) = rf n.
Proof. intros _. rewrite T_nth. reflexivity. Qed.

Lemma is_lt n : n < nnz -> nthN is n 0 < row.
Proof.
  intros H. rewrite Forall_forall in His. apply His. unfold nthN. apply nth_In.
  unfold nnz, lenN in H. lia.
Qed.

Lemma T_cols t : In t T -> In (fst (snd t)) js.
Proof.
  destruct t as [a [b v]]. intros H. apply in_combine_r in H. apply in_combine_l in H. exact H.
Qed.

Lemma B_0 : B 0 = 0.
Proof. apply cntlt_0c. Qed.

Lemma B_row : B row = nnz.
Proof. apply cntlt_all, is_lt. Qed.

Lemma B_row1 : B (row + 1) = nnz.
Proof. apply cntlt_all. intros k Hk. pose proof (is_lt k Hk). unfold rf. lia. Qed.

Lemma B_le i : B i <= nnz.
Proof. apply cntlt_le. Qed.

Lemma B_succ i : B (i + 1) = B i + cnt rf i nnz.
Proof. apply cntlt_succ_c. Qed.

(* (a) the histogram *)
Lemma phase_hist :
  exists p1,
    for_range 0 nnz (fun n p => do r <- getN is n; do v <- getN p r; setN p r (uadd v 1))
      (repeat 0 (N.to_nat (row + 1))) = Ok p1 /\
    lenN p1 = row + 1 /\ forall r, r <= row -> nthN p1 r 0 = cnt rf r nnz.
Proof.
  destruct (count_loop is (fun r => r) rf nnz (row + 1)) as (p1 & Hf & L1 & HP).
  - unfold nnz, lenN in *. lia.
  - unfold nnz in *. lia.
  - intros n Hn. split; [reflexivity|]. pose proof (is_lt n Hn). unfold rf. lia.
  - exists p1. split; [exact Hf|]. split; [exact L1|]. intros r Hr. apply HP. lia.
Qed.

(* (b) the cumulative sum *)
Lemma phase_cumsum p1 :
  lenN p1 = row + 1 -> (forall r, r <= row -> nthN p1 r 0 = cnt rf r nnz) ->
  exists p2 cs,
    for_range 0 row (fun i st =>
             let '(p, cumsum) := st in
             do temp <- getN p i;
             do p' <- setN p i cumsum;
             Ok (p', uadd cumsum temp)) (p1, 0) = Ok (p2, cs) /\
    lenN p2 = row + 1 /\ forall r, r < row -> nthN p2 r 0 = B r.
Proof.
  intros L1 H1.
  destruct (sweep_loop uadd B (fun r => cnt rf r nnz) row p1) as (p2 & Hf & L2 & HP & _).
  - lia.
  - intros; apply H1; lia.
  - intros i Hi. pose proof (B_le (i + 1)) as Hle. rewrite B_succ in *.
    apply uadd_small. unfold nnz in *; lia.
  - rewrite B_0 in Hf. exists p2, (B row). split; [exact Hf|]. split; [lia|exact HP].
Qed.

(* (c) the scatter: a stable counting sort by row *)
Lemma phase_scatter p3 :
  lenN p3 = row + 1 -> (forall r, r <= row -> nthN p3 r 0 = B r) ->
  exists p4 j4 x4,
    for_range 0 nnz (fun n st =>
             let '(p, j_, x_) := st in
             do r <- getN is n;
             do dest <- getN p r;
             do c <- getN js n;
             do j' <- setN j_ dest c;
             do v <- getN xs n;
             do x' <- setN x_ dest v;
             do p' <- setN p r (uadd dest 1);
             Ok (p', j', x')) (p3, repeat 0 (N.to_nat nnz), repeat e0 (N.to_nat nnz)) = Ok (p4, j4, x4) /\
    lenN p4 = row + 1 /\ lenN j4 = nnz /\ lenN x4 = nnz /\
    (forall r, r <= row -> nthN p4 r 0 = B (r + 1)) /\
    (forall r, r < row -> segN j4 x4 (B r) (B (r + 1)) = rowl T r).
Proof.
  intros L3 H3.
  match goal with |- context [for_range 0 nnz ?body ?s] =>
    destruct (for_range_inv
      (fun n (st : list N * list N * list E) => let '(p, j_, x_) := st in
         lenN p = row + 1 /\ (forall r, r < row -> nthN p r 0 = B r + cnt rf r n) /\
         nthN p row 0 = nnz /\ scat Ops T rf nnz n j_ x_)
      body 0 nnz s) as ([[p4 j4] x4] & Hf & L4 & HA & HB & HC) end.
  - lia.
  - split; [assumption|]. split; [|split].
    + intros r Hr. rewrite H3 by lia. rewrite cnt_0. lia.
    + rewrite H3 by lia. apply B_row.
    + apply scat_0; rewrite lenN_repeat; lia.
  - intros n [[p j_] x_] _ Hn (L & HA & HB & HC). pose proof HC as (Lj & Lx & _).
    rewrite (getN_ok is n 0) by (unfold nnz, lenN in *; lia). cbn [bind].
    pose proof (is_lt n Hn) as Hr. fold (rf n) in *. set (r := rf n) in *.
    rewrite (getN_ok p r 0) by lia. cbn [bind].
    rewrite (HA r Hr). pose proof (scat_dest rf nnz n Hn) as Hdest. fold r (B r) in Hdest.
    set (dest := B r + cnt rf r n) in *.
    rewrite (getN_ok js n 0) by (unfold nnz, lenN in *; lia). cbn [bind].
    rewrite setN_ok by lia. cbn [bind].
    rewrite (getN_ok xs n e0) by (unfold nnz, lenN in *; lia). cbn [bind].
    rewrite setN_ok by lia. cbn [bind].
    rewrite uadd_small by (unfold nnz in Hdest; lia).
    rewrite setN_ok by lia. cbn [bind].
    eexists. split; [reflexivity|].
    split; [rewrite lenN_updn by lia; assumption|]. split; [|split].
    + intros r' Hr'. rewrite nthN_updn by lia. rewrite cnt_succ. fold r. rewrite (N.eqb_sym r r').
      destruct (N.eqb_spec r' r) as [->|Hne]; [unfold dest; lia|]. rewrite HA by assumption. lia.
    + rewrite nthN_updn by lia. destruct (N.eqb_spec row r); [lia|assumption].
    + apply (scat_step Ops T rf nnz T_len T_key n j_ x_ _ _ Hn); [rewrite T_nth; reflexivity|exact HC].
  - destruct HC as (L5 & L6 & HC'). exists p4, j4, x4. split; [exact Hf|]. split; [exact L4|].
    split; [exact L5|]. split; [exact L6|]. split.
    + intros r Hr. destruct (N.eq_dec r row) as [->|Hne].
      * rewrite HB. symmetry. apply B_row1.
      * rewrite HA by lia. symmetry. apply B_succ.
    + intros r Hr. apply (scat_all Ops T rf nnz T_len). split; [exact L5|]. split; [exact L6|exact HC'].
Qed.

(* (d) shifting the row pointers back *)
Lemma phase_shift p4 :
  lenN p4 = row + 1 -> (forall r, r <= row -> nthN p4 r 0 = B (r + 1)) ->
  exists p5 lst,
    for_range 0 (row + 1) (fun i st =>
             let '(p, last) := st in
             do v <- getN p i;
             do p' <- setN p i last;
             Ok (p', v)) (p4, 0) = Ok (p5, lst) /\
    lenN p5 = row + 1 /\ forall r, r <= row -> nthN p5 r 0 = B r.
Proof.
  intros L4 H4.
  destruct (sweep_loop (fun _ v => v) B (fun r => B (r + 1)) (row + 1) p4) as (p5 & Hf & L5 & HP & _).
  - lia.
  - intros; apply H4; lia.
  - reflexivity.
  - rewrite B_0 in Hf. exists p5, (B (row + 1)). split; [exact Hf|]. split; [lia|]. intros r Hr. apply HP. lia.
Qed.

Lemma from_coo_core :
  exists m, from_coo Ops row col is js xs = Ok m /\ crow m = row /\ ccol m = col /\ Inv (E:=E) m /\
    forall i c, i < row -> c < col -> entry m i c = esum (coo_values is js xs i c).
Proof.
  unfold from_coo. rewrite (u32_small (lenN xs)) by lia. rewrite (uadd_small row 1) by lia. cbn zeta.
  destruct phase_hist as (p1 & E1 & L1 & H1). fold nnz. rewrite E1. cbn [bind].
  destruct (phase_cumsum p1 L1 H1) as (p2 & cs & E2 & L2 & H2). rewrite E2. cbn [bind].
  rewrite (setN_ok p2 row) by lia. cbn [bind].
  set (p3 := updn (N.to_nat row) p2 nnz).
  assert (L3 : lenN p3 = row + 1) by (unfold p3; rewrite lenN_updn by lia; assumption).
  assert (H3 : forall r, r <= row -> nthN p3 r 0 = B r).
  { intros r Hr. unfold p3. rewrite nthN_updn by lia.
    destruct (N.eqb_spec r row) as [->|Hne]; [symmetry; apply B_row|apply H2; lia]. }
  destruct (phase_scatter p3 L3 H3) as (p4 & j4 & x4 & E3 & L4 & Lj & Lx & H4 & R4).
  rewrite E3. cbn [bind].
  destruct (phase_shift p4 L4 H4) as (p5 & lst & E4 & L5 & H5). rewrite E4. cbn [bind].
  set (m5 := Build_csr p5 j4 x4 row col).
  assert (Hmono : forall i, i < row -> B i <= B (i + 1)).
  { intros i Hi. apply cntlt_mono_c. lia. }
  assert (W5 : wf m5).
  { unfold wf, pN, m5. cbn [cp cj cx crow]. split; [assumption|]. split; [rewrite H5 by lia; apply B_0|].
    split; [|split].
    - intros i Hi. rewrite !H5 by lia. apply Hmono; assumption.
    - rewrite H5 by lia. rewrite B_row. symmetry; assumption.
    - lia. }
  assert (R5 : forall i, i < row -> row_of m5 i = rowl T i).
  { intros i Hi. rewrite row_of_seg. unfold pN, m5. cbn [cp cj cx]. rewrite !H5 by lia. apply R4; assumption. }
  destruct (sort_indices_spec Ops m5 W5) as (j6 & x6 & E5 & S5); [cbn [cj m5]; lia|cbn [crow m5]; lia|].
  cbn [cp cj cx crow ccol m5] in E5, S5. cbn zeta in S5. rewrite E5. cbn [bind].
  set (m6 := Build_csr p5 j6 x6 row col) in *.
  destruct S5 as (Lj6 & Lx6 & W6 & R6).
  destruct (sum_duplicates_spec Ops m6 W6) as (p7 & j7 & x7 & E6 & S6).
  { cbn [cj m6]. lia. }
  { cbn [crow m6]. lia. }
  { intros i Hi. apply R6. exact Hi. }
  cbn [cp cj cx crow ccol m6] in E6, S6. cbn zeta in S6. rewrite E6. cbn [bind].
  set (m7 := Build_csr p7 j7 x7 row col) in *.
  destruct S6 as (C7 & R7 & V7).
  exists m7. split; [reflexivity|]. split; [reflexivity|]. split; [reflexivity|]. split.
  - split; [exact C7|]. split.
    + apply (rows_cols_ok Ops); [apply C7|]. cbn [crow ccol m7]. intros i e Hi He.
      rewrite R7 in He by assumption. apply group_in in He as (e1 & He1 & ->).
      destruct (R6 i Hi) as (P6 & _).
      apply (Permutation_in _ P6) in He1.
      rewrite R5 in He1 by assumption. unfold rowl in He1.
      apply in_map_iff in He1 as (t & <- & Ht). apply filter_In in Ht as (Ht & _).
      apply T_cols in Ht. rewrite Forall_forall in Hjs. apply Hjs. assumption.
    + unfold dims_ok. cbn [crow ccol m7]. repeat split; assumption.
  - intros i c Hi Hc. rewrite V7 by assumption. rewrite lsum_esum by assumption.
    destruct (R6 i Hi) as (P6 & _).
    rewrite (esum_perm HM _ _ (colvals_perm c _ _ P6)).
    rewrite R5 by assumption. rewrite coo_values_rowl. reflexivity.
Qed.

End Loops.

Theorem from_coo_spec (row col : N) (is js : list N) (xs : list E) :
  comm_monoid Ops ->
  row < 2 ^ 31 -> col < 2 ^ 31 -> row * col < 2 ^ 31 -> lenN xs < 2 ^ 31 ->
  length is = length xs -> length js = length xs ->
  Forall (fun i => i < row) is -> Forall (fun c => c < col) js ->
  exists m, from_coo Ops row col is js xs = Ok m /\ crow m = row /\ ccol m = col /\ Inv m /\
    forall i c, i < row -> c < col -> entry m i c = esum (coo_values is js xs i c).
Proof. intros. apply from_coo_core; assumption. Qed.

End FromCoo3.

Print Assumptions from_coo_spec.
