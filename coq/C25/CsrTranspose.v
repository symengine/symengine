(* C25 -- CSRMatrix::transpose (a counting sort by column). *)
From SE Require Export C25.CsrScatter.
Local Open Scope N_scope.
Local Open Scope res_scope.

Lemma partial_sum_length acc l : length (partial_sum acc l) = length l.
Proof. revert acc; induction l; intros; cbn [partial_sum length]; [reflexivity|]. rewrite IHl. reflexivity. Qed.

Lemma partial_sum_nthS : forall l acc k, (S k < length l)%nat ->
  nth (S k) (partial_sum acc l) 0 = uadd (nth k (partial_sum acc l) 0) (nth (S k) l 0).
Proof.
  induction l; intros acc k H; [cbn in H; lia|].
  cbn [partial_sum]. cbn [length] in H. destruct k.
  - cbn [nth]. destruct l; [cbn in H; lia|]. reflexivity.
  - change (nth (S (S k)) (uadd acc a :: partial_sum (uadd acc a) l) 0)
      with (nth (S k) (partial_sum (uadd acc a) l) 0).
    change (nth (S (S k)) (a :: l) 0) with (nth (S k) l 0).
    change (nth (S k) (uadd acc a :: partial_sum (uadd acc a) l) 0)
      with (nth k (partial_sum (uadd acc a) l) 0).
    apply IHl. lia.
Qed.

Lemma lenN_partial_sum acc l : lenN (partial_sum acc l) = lenN l.
Proof. unfold lenN. rewrite partial_sum_length. reflexivity. Qed.

Lemma partial_sum_nthN_0 acc l : 0 < lenN l ->
  nthN (partial_sum acc l) 0 0 = uadd acc (nthN l 0 0).
Proof. destruct l; unfold lenN; cbn [length]; intros; [lia|]. reflexivity. Qed.

Lemma partial_sum_nthN_S acc l k : k + 1 < lenN l ->
  nthN (partial_sum acc l) (k + 1) 0 = uadd (nthN (partial_sum acc l) k 0) (nthN l (k + 1) 0).
Proof.
  intros H. unfold nthN. replace (N.to_nat (k + 1)) with (S (N.to_nat k)) by lia.
  apply partial_sum_nthS. unfold lenN in H. lia.
Qed.

(* lists laid out one after another, list i from position p i on *)
Lemma nthN_map_Nseq {Y} (h : N -> Y) a n j dflt : j < N.of_nat n -> nthN (map h (Nseq a n)) j dflt = h (a + j).
Proof.
  intros Hj. unfold nthN. rewrite (nth_indep _ dflt (h 0)) by (rewrite map_length, Nseq_length; lia).
  rewrite map_nth, nth_Nseq by lia. f_equal. lia.
Qed.

Lemma flat_map_seg {Y} (g : N -> list Y) (p : N -> N) (dflt : Y) : forall n,
  p 0 = 0 -> (forall i, i < N.of_nat n -> p (i + 1) = p i + lenN (g i)) ->
  lenN (flat_map g (Nseq 0 n)) = p (N.of_nat n) /\
  (forall i, i <= N.of_nat n -> p i <= p (N.of_nat n)) /\
  forall i k, i < N.of_nat n -> p i <= k -> k < p (i + 1) ->
    nthN (flat_map g (Nseq 0 n)) k dflt = nthN (g i) (k - p i) dflt.
Proof.
  induction n; intros H0 Hs.
  - split; [symmetry; exact H0|]. split; intros; [replace i with 0 by lia; reflexivity|lia].
  - destruct IHn as (IL & IM & IN); [exact H0|intros; apply Hs; lia|].
    pose proof (Hs (N.of_nat n) ltac:(lia)) as Hn. rewrite Nat2N.inj_succ, <- N.add_1_r.
    rewrite Nseq_S, flat_map_app, N.add_0_l. cbn [flat_map]. rewrite app_nil_r.
    split; [rewrite lenN_app, IL; lia|]. split.
    + intros i Hi. destruct (N.eq_dec i (N.of_nat n + 1)) as [->|]; [reflexivity|].
      specialize (IM i ltac:(lia)). lia.
    + intros i k Hi K1 K2. destruct (N.eq_dec i (N.of_nat n)) as [->|Hne].
      * rewrite nthN_app2 by lia. rewrite IL. reflexivity.
      * specialize (IM (i + 1) ltac:(lia)). rewrite nthN_app1 by lia. apply IN; [lia|assumption|assumption].
Qed.

Definition jfun {E} (m : csr E) (k : N) : N := nthN (cj m) k 0.

Section Transpose.
Context {E : Type}.
Variable Ops : eops E.
Notation mat := (csr E).
Notation entry := (entry Ops).
Notation Inv := (Inv (E:=E)).
Notation tri := (N * (N * E))%type.

Section OneMatrix.
Variable m : mat.
Variable cf : bool.
Hypothesis HI : Inv m.

Notation nnz := (lenN (cj m)).
Notation jf := (jfun m).

Definition cv (v : E) : E := if cf then econj Ops v else v.

Definition hbody (i : N) (p : list N) : res (list N) :=
  do c <- getN (cj m) i;
  do v <- getN p (uadd c 1);
  setN p (uadd c 1) (uadd v 1).

Definition ibody (p2 : list N) (ri : N) (i : N) (st : list N * list E * list N)
  : res (list N * list E * list N) :=
  let '(j_, x_, tmp) := st in
  do ci <- getN (cj m) i;
  do pc <- getN p2 ci;
  do tc <- getN tmp ci;
  let k := uadd pc tc in
  do j' <- setN j_ k ri;
  do v <- getN (cx m) i;
  do x' <- setN x_ k (if cf then econj Ops v else v);
  do tmp' <- setN tmp ci (uadd tc 1);
  Ok (j', x', tmp').

Definition obody (p2 : list N) (ri : N) (st : list N * list E * list N)
  : res (list N * list E * list N) :=
  do a <- getN (cp m) ri;
  do b <- getN (cp m) (uadd ri 1);
  for_range a b (ibody p2 ri) st.

Lemma transpose_unfold :
  transpose Ops m cf =
  (do p1 <- for_range 0 (u32 nnz) hbody (repeat 0 (N.to_nat (uadd (ccol m) 1)));
   do '(j3, x3, _) <- for_range 0 (crow m) (obody (partial_sum 0 p1))
                        (repeat 0 (N.to_nat (u32 nnz)), repeat (ezero Ops) (N.to_nat (u32 nnz)),
                         repeat 0 (N.to_nat (ccol m)));
   Ok (Build_csr (partial_sum 0 p1) j3 x3 (ccol m) (crow m))).
Proof. reflexivity. Qed.

(* facts from the invariant *)
Lemma T_wf : wf m. Proof. destruct HI as ((H & _) & _). exact H. Qed.
Lemma T_sorted i : i < crow m -> row_sorted m i.
Proof. destruct HI as ((_ & H) & _). apply H. Qed.
Lemma T_cols k : k < nnz -> jf k < ccol m.
Proof. destruct HI as (_ & H & _). apply H. Qed.
Lemma T_small : nnz < 2 ^ 31 /\ crow m < 2 ^ 31 /\ ccol m < 2 ^ 31.
Proof. destruct (Inv_small Ops m HI). destruct HI as (_ & _ & (? & ? & ?)). auto. Qed.
Lemma T_lenx : lenN (cx m) = nnz.
Proof. destruct T_wf as (_ & _ & _ & _ & H). exact H. Qed.
Lemma T_pend : pN m (crow m) = nnz.
Proof. destruct T_wf as (_ & _ & _ & H & _). exact H. Qed.
Lemma T_p0 : pN m 0 = 0.
Proof. destruct T_wf as (_ & H & _). exact H. Qed.

Lemma P2_total : cntlt jf (ccol m) nnz = nnz.
Proof. apply cntlt_all. intros; apply T_cols; assumption. Qed.

Lemma hist_loop :
  exists p1, for_range 0 (u32 nnz) hbody (repeat 0 (N.to_nat (uadd (ccol m) 1))) = Ok p1 /\
    lenN p1 = ccol m + 1 /\ nthN p1 0 0 = 0 /\
    forall c, c < ccol m -> nthN p1 (c + 1) 0 = cnt jf c nnz.
Proof.
  destruct T_small as (S1 & S2 & S3).
  rewrite u32_small by lia. rewrite uadd_small by lia.
  destruct (count_loop (cj m) (fun c => uadd c 1) (fun k => jf k + 1) nnz (ccol m + 1)) as (p1 & Hf & L1 & HP).
  - lia.
  - lia.
  - intros n Hn. pose proof (T_cols n Hn). unfold jfun in *. split; [apply uadd_small|]; lia.
  - exists p1. split; [exact Hf|]. split; [exact L1|].
    split; [rewrite HP by lia; apply cnt_shift_0|]. intros c Hc. rewrite HP by lia. apply cnt_shift.
Qed.

Lemma psum_spec p1 :
  lenN p1 = ccol m + 1 -> nthN p1 0 0 = 0 ->
  (forall c, c < ccol m -> nthN p1 (c + 1) 0 = cnt jf c nnz) ->
  forall c, c <= ccol m -> nthN (partial_sum 0 p1) c 0 = cntlt jf c nnz.
Proof.
  intros L Z C. destruct T_small as (S1 & S2 & S3).
  induction c using N.peano_ind; intros Hc.
  - rewrite partial_sum_nthN_0 by lia. rewrite Z, cntlt_0c. reflexivity.
  - rewrite <- N.add_1_r in *. rewrite partial_sum_nthN_S by lia.
    rewrite IHc by lia. rewrite C by lia.
    pose proof (cntlt_le jf (c + 1) nnz) as Hle. rewrite cntlt_succ_c in *.
    rewrite uadd_small by lia. reflexivity.
Qed.

(* the stored entries in storage order: key = column, then (row, value) *)
Definition tag (i : N) (e : N * E) : tri := (fst e, (i, cv (snd e))).
Definition titems : list tri :=
  flat_map (fun i => map (tag i) (row_of Ops m i)) (Nseq 0 (N.to_nat (crow m))).
Let d : tri := (0, (0, ezero Ops)).

Lemma titems_spec : lenN titems = nnz /\
  forall ri k, ri < crow m -> pN m ri <= k -> k < pN m (ri + 1) ->
    nthN titems k d = (jf k, (ri, cv (nthN (cx m) k (ezero Ops)))).
Proof.
  unfold titems.
  destruct (flat_map_seg (fun i => map (tag i) (row_of Ops m i)) (pN m) d (N.to_nat (crow m)) T_p0)
    as (HL & _ & HN).
  - intros i Hi. rewrite lenN_map, row_of_seg, segN_length.
    pose proof (pN_mono m T_wf (i + 1) i ltac:(lia) ltac:(lia)). lia.
  - rewrite N2Nat.id in *. split; [rewrite <- T_pend; exact HL|].
    intros ri k Hri K1 K2. rewrite (HN ri k Hri K1 K2). unfold CsrSpec.row_of. rewrite map_map.
    rewrite nthN_map_Nseq by lia. unfold tag. cbn [fst snd].
    replace (pN m ri + (k - pN m ri)) with k by lia. reflexivity.
Qed.

Lemma titems_key k : k < nnz -> fst (nthN titems k d) = jf k.
Proof.
  intros Hk. destruct (find_row m k T_wf Hk) as (ri & R1 & R2 & R3).
  rewrite (proj2 titems_spec ri k R1 R2 R3). reflexivity.
Qed.

(* column c of m as a row: the rows that store c, with the values found there *)
Definition has (c : N) (r : list (N * E)) : bool := existsb (fun e => fst e =? c) r.
Definition trow (c : N) : list (N * E) :=
  sel (fun i => has c (row_of Ops m i)) (Nseq 0 (N.to_nat (crow m)))
      (fun i => cv (lookup Ops c (row_of Ops m i))).

Lemma lookup_has_false c r : has c r = false -> lookup Ops c r = ezero Ops.
Proof.
  intros H. apply lookup_none. intros e He Hc.
  assert (has c r = true) by (apply existsb_exists; exists e; split; [exact He|apply N.eqb_eq, Hc]).
  congruence.
Qed.

Lemma rowl_tag i c r : srt N.lt r ->
  rowl (map (tag i) r) c = if has c r then [(i, cv (lookup Ops c r))] else [].
Proof.
  induction r as [|e r IH]; intros Hs; [reflexivity|]. destruct Hs as (H1 & Hs). specialize (IH Hs).
  unfold rowl, has in *. cbn [map filter existsb tag fst snd]. rewrite lookup_cons.
  destruct (N.eqb_spec (fst e) c) as [Heq|Hne]; cbn [orb map snd]; [|exact IH].
  (* the rest of the row holds larger columns only *)
  rewrite IH. destruct (existsb (fun e0 => fst e0 =? c) r) eqn:Hh; [exfalso|reflexivity].
  apply existsb_exists in Hh as (b & Hb & Hbc). apply N.eqb_eq in Hbc. specialize (H1 b Hb). lia.
Qed.

Lemma rowl_titems c : rowl titems c = trow c.
Proof.
  unfold titems, trow. rewrite rowl_flat_map, sel_flat_map, !flat_map_concat_map. f_equal.
  apply map_ext_in. intros i Hi. apply in_Nseq in Hi. apply rowl_tag, (row_sorted_srt Ops), T_sorted. lia.
Qed.

Definition Q (n : N) (st : list N * list E * list N) : Prop :=
  let '(j_, x_, tmp) := st in
  lenN tmp = ccol m /\ (forall c, c < ccol m -> nthN tmp c 0 = cnt jf c n) /\
  scat Ops titems jf nnz n j_ x_.

Section Scatter.
Variable p2 : list N.
Hypothesis Lp2 : lenN p2 = ccol m + 1.
Hypothesis Hp2 : forall c, c <= ccol m -> nthN p2 c 0 = cntlt jf c nnz.

Lemma inner_step ri i st :
  ri < crow m -> pN m ri <= i -> i < pN m (ri + 1) -> Q i st ->
  exists st', ibody p2 ri i st = Ok st' /\ Q (i + 1) st'.
Proof.
  intros Hri I1 I2 HQ. destruct st as [[j_ x_] tmp]. destruct HQ as (Lt & T & S).
  pose proof S as (Lj & Lx & _). destruct T_small as (S1 & S2 & S3). destruct titems_spec as (HL & HN).
  assert (Hi : i < nnz).
  { pose proof (pN_le_nnz m T_wf (ri + 1) ltac:(lia)). lia. }
  pose proof (T_cols i Hi) as Hc.
  pose proof (scat_dest jf nnz i Hi) as Hsl.
  unfold ibody.
  rewrite (getN_ok (cj m) i 0) by lia. cbn [bind].
  change (nthN (cj m) i 0) with (jf i).
  rewrite (getN_ok p2 (jf i) 0) by lia. cbn [bind].
  rewrite (getN_ok tmp (jf i) 0) by lia. cbn [bind].
  rewrite Hp2 by lia. rewrite (T _ Hc). rewrite uadd_small by lia.
  rewrite setN_ok by lia. cbn [bind].
  rewrite (getN_ok (cx m) i (ezero Ops)) by (rewrite T_lenx; lia). cbn [bind].
  rewrite setN_ok by lia. cbn [bind].
  rewrite setN_ok by lia. cbn [bind].
  eexists; split; [reflexivity|].
  pose proof (cnt_le jf (jf i) i) as Hcl.
  rewrite uadd_small by lia.
  split; [rewrite lenN_updn; lia|]. split.
  - intros c Hc'. rewrite nthN_updn by lia. rewrite cnt_succ.
    destruct (N.eqb_spec c (jf i)), (N.eqb_spec (jf i) c); try lia.
    + subst c. reflexivity.
    + rewrite (T c Hc'). lia.
  - apply (scat_step Ops titems jf nnz HL titems_key i j_ x_ ri (cv (nthN (cx m) i (ezero Ops))) Hi);
      [exact (f_equal snd (HN ri i Hri I1 I2))|exact S].
Qed.

Lemma outer_step ri st :
  ri < crow m -> Q (pN m ri) st ->
  exists st', obody p2 ri st = Ok st' /\ Q (pN m (ri + 1)) st'.
Proof.
  intros Hri HQ. destruct T_small as (S1 & S2 & S3). unfold obody.
  rewrite (getN_p m ri T_wf) by lia. cbn [bind].
  rewrite uadd_small by lia.
  rewrite (getN_p m (ri + 1) T_wf) by lia. cbn [bind].
  apply (for_range_inv Q).
  - destruct T_wf as (_ & _ & H & _). apply H. assumption.
  - assumption.
  - intros k s K1 K2 HQk. apply inner_step; assumption.
Qed.

Lemma scatter_loop :
  exists st, for_range 0 (crow m) (obody p2)
               (repeat 0 (N.to_nat (u32 nnz)), repeat (ezero Ops) (N.to_nat (u32 nnz)),
                repeat 0 (N.to_nat (ccol m))) = Ok st /\ Q nnz st.
Proof.
  destruct T_small as (S1 & S2 & S3).
  rewrite u32_small by lia.
  destruct (for_range_inv (fun ri st => Q (pN m ri) st) (obody p2) 0 (crow m)
              (repeat 0 (N.to_nat nnz), repeat (ezero Ops) (N.to_nat nnz),
               repeat 0 (N.to_nat (ccol m)))) as (st & Hf & HQ).
  - lia.
  - rewrite T_p0. split; [rewrite lenN_repeat; lia|]. split.
    + intros c Hc. rewrite cnt_0. apply nthN_repeat. lia.
    + apply scat_0; rewrite lenN_repeat; lia.
  - intros k s K1 K2 HQk. apply outer_step; assumption.
  - exists st. split; [assumption|]. rewrite T_pend in HQ. assumption.
Qed.

(* the result: row c of the transpose is column c of m *)
Lemma result_ok j3 x3 tmp3 : Q nnz (j3, x3, tmp3) ->
  let t := Build_csr p2 j3 x3 (ccol m) (crow m) in
  Inv t /\
  (conj_zero Ops ->
   forall i c, i < crow m -> c < ccol m -> entry t c i = cv (entry m i c)).
Proof.
  intros (_ & _ & S) t. pose proof S as (Lj & Lx & _).
  destruct T_small as (S1 & S2 & S3).
  assert (Hpt : forall c, c <= ccol m -> pN t c = cntlt jf c nnz).
  { intros c Hc. unfold pN, t; cbn [cp]. apply Hp2; assumption. }
  assert (Hrow : forall c, c < ccol m -> row_of Ops t c = trow c).
  { intros c Hc. rewrite row_of_seg, !Hpt by lia. cbn [cj cx t].
    rewrite (scat_all Ops titems jf nnz (proj1 titems_spec) j3 x3 S c). apply rowl_titems. }
  split.
  - apply (Inv_of_rows Ops).
    + unfold wf. split; [exact Lp2|]. split; [rewrite Hpt by lia; apply cntlt_0c|].
      split; [|split].
      * intros i Hi. cbn [crow t] in Hi. rewrite !Hpt by lia. apply cntlt_mono_c. lia.
      * cbn [crow cj t]. rewrite Hpt by lia. rewrite P2_total. lia.
      * cbn [cx cj t]. lia.
    + destruct HI as (_ & _ & (D1 & D2 & D3)). unfold dims_ok. cbn [crow ccol t]. lia.
    + intros c Hc. cbn [crow ccol t] in *. rewrite Hrow by exact Hc. apply sel_Nseq_in; lia.
  - intros Hcz i c Hi Hc. unfold CsrSpec.entry. rewrite Hrow by exact Hc. unfold trow.
    rewrite lookup_sel; [reflexivity| |apply in_Nseq; lia].
    intros Hh. rewrite (lookup_has_false c _ Hh). unfold cv. destruct cf; [exact Hcz|reflexivity].
Qed.

End Scatter.
End OneMatrix.

Theorem transpose_spec (m : csr E) (cf : bool) :
  conj_zero Ops -> Inv m ->
  exists t, transpose Ops m cf = Ok t /\ crow t = ccol m /\ ccol t = crow m /\ Inv t /\
    forall i c, i < crow m -> c < ccol m ->
      entry t c i = (if cf then econj Ops (entry m i c) else entry m i c).
Proof.
  intros Hcz HI. rewrite transpose_unfold.
  destruct (hist_loop m HI) as (p1 & Hf1 & L1 & Z1 & C1). rewrite Hf1. cbn [bind].
  pose proof (psum_spec m HI p1 L1 Z1 C1) as Hp2.
  assert (Lp2 : lenN (partial_sum 0 p1) = ccol m + 1) by (rewrite lenN_partial_sum; exact L1).
  destruct (scatter_loop m cf HI _ Lp2 Hp2) as ([[j3 x3] tmp3] & Hf2 & HQ). rewrite Hf2. cbn [bind].
  destruct (result_ok m cf HI _ Lp2 Hp2 j3 x3 tmp3 HQ) as (HIt & Hent).
  eexists. split; [reflexivity|]. cbn [crow ccol].
  split; [reflexivity|]. split; [reflexivity|]. split; [exact HIt|].
  intros i c Hi Hc. rewrite (Hent Hcz i c Hi Hc). reflexivity.
Qed.

End Transpose.

Print Assumptions transpose_spec.
