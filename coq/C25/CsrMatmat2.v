(* C25 -- csr_matmat, part 2: csr_matmat_pass1 computes the structural row pointers,
   csr_matmat_pass2 accumulates each row in a linked list threaded through next[] and emits it. *)
From SE Require Export C25.CsrMatmat1.
Local Open Scope N_scope.
Local Open Scope res_scope.

Fixpoint sum_nat (f : N -> N) (n : nat) : N :=
  match n with
  | O => 0
  | S n' => sum_nat f n' + f (N.of_nat n')
  end.
Definition sumN (f : N -> N) (i : N) : N := sum_nat f (N.to_nat i).

Lemma sumN_0 f : sumN f 0 = 0.
Proof. reflexivity. Qed.

Lemma sumN_succ f i : sumN f (i + 1) = sumN f i + f i.
Proof.
  unfold sumN. replace (N.to_nat (i + 1)) with (S (N.to_nat i)) by lia.
  cbn [sum_nat]. rewrite N2Nat.id. reflexivity.
Qed.

Lemma sumN_le_mul f c i : (forall r, r < i -> f r <= c) -> sumN f i <= i * c.
Proof.
  induction i using N.peano_ind; intros H; [rewrite sumN_0; lia|].
  replace (N.succ i) with (i + 1) in * by lia. rewrite sumN_succ.
  specialize (IHi ltac:(intros; apply H; lia)). specialize (H i ltac:(lia)). nia.
Qed.

Lemma sumN_mono f a b : a <= b -> sumN f a <= sumN f b.
Proof.
  induction b using N.peano_ind; intros H.
  - replace a with 0 by lia. lia.
  - destruct (N.eq_dec a (N.succ b)) as [->|]; [lia|].
    replace (N.succ b) with (b + 1) in * by lia. rewrite sumN_succ. specialize (IHb ltac:(lia)). lia.
Qed.

Lemma sumN_le f g i : (forall r, r < i -> f r <= g r) -> sumN f i <= sumN g i.
Proof.
  induction i using N.peano_ind; intros H; [rewrite !sumN_0; lia|].
  replace (N.succ i) with (i + 1) in * by lia. rewrite !sumN_succ.
  specialize (IHi ltac:(intros; apply H; lia)). specialize (H i ltac:(lia)). lia.
Qed.

(* the linked list threaded through next[] *)
Fixpoint chain (next : list Z) (h : Z) (D : list N) : Prop :=
  match D with
  | [] => h = (-2)%Z
  | k :: D' => h = Z.of_N k /\ chain next (nthN next k (-1)%Z) D'
  end.

Lemma chain_head_ne next h D : chain next h D -> h <> (-1)%Z.
Proof. destruct D; cbn [chain]; intros; lia. Qed.

Lemma chain_next_ne next D : forall h, chain next h D ->
  forall x, In x D -> nthN next x (-1)%Z <> (-1)%Z.
Proof.
  induction D as [|k D IH]; intros h Hc x Hx; [destruct Hx|].
  destruct Hc as (_ & Hc). destruct Hx as [<-|Hx].
  - eapply chain_head_ne; eassumption.
  - eapply IH; eassumption.
Qed.

Lemma chain_ext next next' D : forall h,
  (forall x, In x D -> nthN next' x (-1)%Z = nthN next x (-1)%Z) ->
  chain next h D -> chain next' h D.
Proof.
  induction D as [|k D IH]; intros h He Hc; [exact Hc|].
  destruct Hc as (Hh & Hc). split; [exact Hh|].
  rewrite (He k (or_introl eq_refl)). apply IH; [|exact Hc].
  intros x Hx. apply He. right. exact Hx.
Qed.

Section Passes.
Context {E : Type}.
Variable Ops : eops E.
Variables A B : csr E.
Hypothesis HA : @Inv E A.
Hypothesis HB : @Inv E B.
Hypothesis Hd : ccol A = crow B.
Hypothesis Hsz : crow A * ccol B < 2 ^ 31.
Notation items := (items Ops A B).
Notation items_at := (items_at Ops A B).

(* number of distinct columns reachable in row i *)
Definition cnt (i : N) : N := lenN (disc (map fst (items i))).
Definition psum (i : N) : N := sumN cnt i.

Lemma cnt_le i : i < crow A -> cnt i <= ccol B.
Proof.
  intros Hi. unfold cnt. apply disc_bounded.
  intros k Hk. apply (items_col_lt Ops A B i k); assumption.
Qed.

Lemma psum_le i : i <= crow A -> psum i <= i * ccol B.
Proof. intros Hi. apply sumN_le_mul. intros r Hr. apply cnt_le. lia. Qed.

Lemma psum_small i : i <= crow A -> psum i < 2 ^ 31.
Proof. intros Hi. pose proof (psum_le i Hi). nia. Qed.

Lemma wfA : @wf E A. Proof. apply HA. Qed.
Lemma wfB : @wf E B. Proof. apply HB. Qed.
Lemma colA_small : ccol A < 2 ^ 31. Proof. destruct HA as (_ & _ & (_ & H & _)). exact H. Qed.
Lemma rowA_small : crow A < 2 ^ 31. Proof. destruct HA as (_ & _ & (H & _)). exact H. Qed.
Lemma colB_small : ccol B < 2 ^ 31. Proof. destruct HB as (_ & _ & (_ & H & _)). exact H. Qed.

(* facts about the positions visited *)
Lemma posA i jj : i < crow A -> pN A i <= jj -> jj < pN A (i + 1) ->
  jj < lenN (cj A) /\ lenN (cx A) = lenN (cj A) /\ nthN (cj A) jj 0 < crow B.
Proof.
  intros Hi H1 H2. pose proof (pN_le_nnz A wfA (i + 1) ltac:(lia)).
  destruct HA as (_ & Hc & _). rewrite <- Hd. split; [lia|]. split; [apply wfA|]. apply Hc. lia.
Qed.

Lemma posB j kk : j < crow B -> pN B j <= kk -> kk < pN B (j + 1) ->
  kk < lenN (cj B) /\ lenN (cx B) = lenN (cj B) /\ nthN (cj B) kk 0 < ccol B.
Proof.
  intros Hj H1 H2. pose proof (pN_le_nnz B wfB (j + 1) ltac:(lia)).
  destruct HB as (_ & Hc & _). split; [lia|]. split; [apply wfB|]. apply Hc. lia.
Qed.

Lemma pA_le i : i < crow A -> pN A i <= pN A (i + 1).
Proof. intros. apply (pN_mono A wfA); lia. Qed.
Lemma pB_le j : j < crow B -> pN B j <= pN B (j + 1).
Proof. intros. apply (pN_mono B wfB); lia. Qed.

(* reading the two pointers of row j of B *)
Lemma getB {X} j (F : N -> N -> res X) : j < crow B ->
  (do ka <- getN (cp B) j; do kb <- getN (cp B) (uadd j 1); F ka kb) = F (pN B j) (pN B (j + 1)).
Proof.
  intros Hj. pose proof colA_small. rewrite (getN_p B j wfB) by lia. cbn [bind].
  rewrite uadd_small by lia. rewrite (getN_p B (j + 1) wfB) by lia. reflexivity.
Qed.

(* both passes run, for every stored entry jj of row i of A, a k-body over the matching row of B:
   the k-body meets the items of row i of the product one after another *)
Lemma row_loops {St} (Q : list (N * E) -> St -> Prop) (jbody : N -> St -> res St)
      (kbody : N -> N -> St -> res St) i st :
  i < crow A ->
  (forall jj s, pN A i <= jj -> jj < pN A (i + 1) ->
     jbody jj s = for_range (pN B (nthN (cj A) jj 0)) (pN B (nthN (cj A) jj 0 + 1)) (kbody jj) s) ->
  (forall jj kk L s, pN A i <= jj -> jj < pN A (i + 1) ->
     pN B (nthN (cj A) jj 0) <= kk -> kk < pN B (nthN (cj A) jj 0 + 1) -> Q L s ->
     exists s', kbody jj kk s = Ok s' /\
       Q (L ++ [(nthN (cj B) kk 0, emul Ops (nthN (cx A) jj (ezero Ops)) (nthN (cx B) kk (ezero Ops)))]) s') ->
  Q [] st ->
  exists st', for_range (pN A i) (pN A (i + 1)) jbody st = Ok st' /\ Q (items i) st'.
Proof.
  intros Hi Hj Hk HQ. unfold CsrMatmat1.items.
  apply (for_range_accl Q items_at _ _ _ _ []); [apply pA_le; assumption|assumption|].
  intros jj L s K1 K2 HQ'. rewrite Hj by assumption. unfold CsrMatmat1.items_at.
  destruct (posA i jj Hi K1 K2) as (_ & _ & P3).
  apply (for_range_acc1 Q); [apply pB_le; assumption|assumption|].
  intros kk L' s' K3 K4. apply Hk; assumption.
Qed.

(* inside row i, after the items L: mask[k] = i marks the columns met so far, the other entries are as they were
   at the start of the row (mask0), and rn counts the marked ones *)
Definition Q1 (i : N) (mask0 : list N) (L : list (N * E)) (st : list N * N) : Prop :=
  let '(mask, rn) := st in
  lenN mask = ccol B /\
  (forall k, k < ccol B -> nthN mask k 0 = if memN k (map fst L) then i else nthN mask0 k 0) /\
  rn = lenN (disc (map fst L)) /\
  (forall k, In k (map fst L) -> k < ccol B).

(* the two nested loops of pass 1 over row i of A, as the model writes them *)
Definition p1_kbody (i kk : N) (st : list N * N) : res (list N * N) :=
  let '(mask, row_nnz) := st in
  do k <- getN (cj B) kk;
  do mk <- getN mask k;
  if negb (mk =? i) then
    do mask' <- setN mask k i; Ok (mask', uadd row_nnz 1)
  else Ok (mask, row_nnz).

Definition p1_jbody (i jj : N) (st : list N * N) : res (list N * N) :=
  do j <- getN (cj A) jj;
  do ka <- getN (cp B) j;
  do kb <- getN (cp B) (uadd j 1);
  for_range ka kb (p1_kbody i) st.

Lemma p1_kstep i mask0 jj kk L st :
  (forall k, k < ccol B -> nthN mask0 k 0 <> i) ->
  nthN (cj A) jj 0 < crow B -> pN B (nthN (cj A) jj 0) <= kk -> kk < pN B (nthN (cj A) jj 0 + 1) ->
  Q1 i mask0 L st ->
  exists st', p1_kbody i kk st = Ok st' /\
    Q1 i mask0 (L ++ [(nthN (cj B) kk 0, emul Ops (nthN (cx A) jj (ezero Ops)) (nthN (cx B) kk (ezero Ops)))]) st'.
Proof.
  intros Hpre Hj K1 K2 HQ. destruct st as [mask rn]. destruct HQ as (Q1a & Q1b & Q1c & Q1d). unfold p1_kbody.
  destruct (posB _ kk Hj K1 K2) as (P1 & P2 & P3).
  set (k := nthN (cj B) kk 0) in *.
  rewrite (getN_ok (cj B) kk 0) by lia. cbn [bind]. fold k.
  rewrite (getN_ok mask k 0) by lia. cbn [bind].
  rewrite (Q1b k) by lia.
  assert (Hin : forall c, In c (map fst (L ++ [(k, emul Ops (nthN (cx A) jj (ezero Ops)) (nthN (cx B) kk (ezero Ops)))])) -> c < ccol B).
  { intros c. rewrite map_app, in_app_iff. cbn [map fst In]. intros [H|[<-|[]]]; auto. }
  destruct (memN k (map fst L)) eqn:Hmem.
  - rewrite N.eqb_refl. cbn [negb]. eexists. split; [reflexivity|].
    unfold Q1. split; [assumption|]. split; [|split; [|assumption]].
    + intros c Hc. rewrite map_app, memN_app. cbn [map fst]. rewrite memN_single.
      rewrite (Q1b c Hc). destruct (N.eqb_spec c k) as [->|]; [rewrite Hmem; reflexivity|].
      rewrite orb_false_r. reflexivity.
    + rewrite map_app. cbn [map fst]. rewrite disc_snoc_old by exact Hmem. assumption.
  - destruct (N.eqb_spec (nthN mask0 k 0) i) as [Heq|Hne]; [exfalso; apply (Hpre k); [lia|assumption]|].
    cbn [negb]. rewrite setN_ok by lia. cbn [bind]. eexists. split; [reflexivity|].
    assert (Hlen : lenN (disc (map fst L ++ [k])) = rn + 1).
    { rewrite disc_snoc_new, lenN_cons by exact Hmem. lia. }
    assert (Hb : lenN (disc (map fst L ++ [k])) <= ccol B).
    { apply disc_bounded. intros c Hc. apply Hin. rewrite map_app. exact Hc. }
    unfold Q1. split; [rewrite lenN_updn; lia|]. split; [|split; [|assumption]].
    + intros c Hc. rewrite nthN_updn by lia. rewrite map_app, memN_app. cbn [map fst].
      rewrite memN_single. destruct (N.eqb_spec c k) as [->|]; [rewrite orb_true_r; reflexivity|].
      rewrite orb_false_r. apply Q1b; assumption.
    + rewrite map_app. cbn [map fst]. rewrite Hlen. apply uadd_small.
      pose proof colB_small. lia.
Qed.

Lemma p1_row i mask0 st :
  i < crow A ->
  (forall k, k < ccol B -> nthN mask0 k 0 <> i) ->
  Q1 i mask0 [] st ->
  exists st', for_range (pN A i) (pN A (i + 1)) (p1_jbody i) st = Ok st' /\ Q1 i mask0 (items i) st'.
Proof.
  intros Hi Hpre HQ. apply (row_loops (Q1 i mask0) (p1_jbody i) (fun _ => p1_kbody i)); [exact Hi| | |exact HQ].
  - intros jj s K1 K2. destruct (posA i jj Hi K1 K2) as (P1 & P2 & P3). unfold p1_jbody.
    rewrite (getN_ok (cj A) jj 0) by lia. cbn [bind].
    exact (getB _ (fun ka kb => for_range ka kb (p1_kbody i) s) P3).
  - intros jj kk L s K1 K2 K3 K4. destruct (posA i jj Hi K1 K2) as (_ & _ & P3). apply p1_kstep; assumption.
Qed.

(* mask[] is never cleared between rows: before row i its entries are the initial value or the number of an
   earlier row, so none of them is i *)
Definition R1 (i : N) (st : list N * list N * N) : Prop :=
  let '(p, mask, nnz) := st in
  lenN p = crow A + 1 /\ lenN mask = ccol B /\
  (forall k, k < ccol B -> nthN mask k 0 = MASK_INIT \/ nthN mask k 0 < i) /\
  nnz = psum i /\
  (forall r, r <= i -> nthN p r 0 = psum r).

Theorem pass1_spec (C0 : csr E) : lenN (cp C0) = crow A + 1 ->
  exists p1, matmat_pass1 A B C0 = Ok (Build_csr p1 (cj C0) (cx C0) (crow C0) (ccol C0)) /\
    lenN p1 = crow A + 1 /\ forall r, r <= crow A -> nthN p1 r 0 = psum r.
Proof using HA HB Hd Hsz.
  intros HC. unfold matmat_pass1.
  rewrite setN_ok by lia. cbn [bind].
  match goal with |- context [for_range 0 (crow A) ?body ?s] =>
    destruct (for_range_inv R1 body 0 (crow A) s) as (st' & Hrun & HR) end.
  - lia.
  - unfold R1. split; [rewrite lenN_updn; lia|]. split; [rewrite lenN_repeat; lia|].
    split; [|split; [reflexivity|]].
    + intros k Hk. left. apply nthN_repeat. lia.
    + intros r Hr. replace r with 0 by lia. rewrite nthN_updn by lia. reflexivity.
  - intros i [[p mask] nnz] _ Hi (R1a & R1b & R1c & R1d & R1e).
    pose proof rowA_small as Hrow.
    rewrite (getN_p A i wfA) by lia. cbn [bind].
    rewrite uadd_small by lia.
    rewrite (getN_p A (i + 1) wfA) by lia. cbn [bind].
    assert (Hpre : forall k, k < ccol B -> nthN mask k 0 <> i).
    { intros k Hk. destruct (R1c k Hk) as [->|]; [unfold MASK_INIT|]; lia. }
    destruct (p1_row i mask (mask, 0) Hi Hpre) as ([mask' rn] & Hrow' & (Qa & Qb & Qc & Qd)).
    { unfold Q1. cbn [map]. split; [assumption|]. split; [|split; [reflexivity|intros ? []]].
      intros; reflexivity. }
    match goal with |- context [for_range (pN A i) (pN A (i + 1)) ?b ?s0] =>
      change (for_range (pN A i) (pN A (i + 1)) b s0) with (for_range (pN A i) (pN A (i + 1)) (p1_jbody i) s0) end.
    rewrite Hrow'. cbn [bind].
    assert (Hn : psum (i + 1) = nnz + rn).
    { unfold psum. rewrite sumN_succ. fold (psum i). unfold cnt. lia. }
    pose proof (psum_small (i + 1) ltac:(lia)).
    rewrite uadd_small by lia.
    destruct (N.ltb_spec (nnz + rn) nnz); [lia|].
    rewrite setN_ok by lia. cbn [bind]. eexists. split; [reflexivity|].
    unfold R1. split; [rewrite lenN_updn; lia|]. split; [assumption|].
    split; [|split; [lia|]].
    + intros k Hk. rewrite (Qb k Hk). destruct (memN k (map fst (items i))); [right; lia|].
      destruct (R1c k Hk); [left; assumption|right; lia].
    + intros r Hr. rewrite nthN_updn by lia.
      destruct (N.eqb_spec r (i + 1)) as [->|]; [lia|]. apply R1e. lia.
  - rewrite Hrun. destruct st' as [[p1 mask] nnz]. cbn [bind].
    destruct HR as (R1a & _ & _ & _ & R1e). exists p1. auto.
Qed.


Hypothesis Hsr : semiring Ops.
Notation zero := (ezero Ops).
Notation csum := (csum Ops).

Definition em (i : N) : list (N * E) :=
  stored Ops (disc (map fst (items i))) (fun k => csum k (items i)).
Definition cnt2 (i : N) : N := lenN (em i).
Definition psum2 (i : N) : N := sumN cnt2 i.

Lemma cnt2_le i : cnt2 i <= cnt i.
Proof. unfold cnt2, em, cnt. apply sel_len. Qed.

Lemma psum2_le i : psum2 i <= psum i.
Proof. apply sumN_le. intros; apply cnt2_le. Qed.

Lemma psum_succ i : psum (i + 1) = psum i + cnt i.
Proof. apply sumN_succ. Qed.
Lemma psum2_succ i : psum2 (i + 1) = psum2 i + cnt2 i.
Proof. apply sumN_succ. Qed.
Lemma psum_mono a b : a <= b -> psum a <= psum b.
Proof. apply sumN_mono. Qed.
Lemma psum2_mono a b : a <= b -> psum2 a <= psum2 b.
Proof. apply sumN_mono. Qed.

(* the stored part of one column is written at nnz: nothing for a zero, else one pair *)
Lemma emit_store k (h : N -> E) oj ox nnz : nnz < lenN oj -> lenN ox = lenN oj -> lenN oj < 2 ^ 31 ->
  let new := stored Ops [k] h in
  exists oj1 ox1,
    (if negb (eis_zero Ops (h k)) then do oj' <- setN oj nnz k; do ox' <- setN ox nnz (h k); Ok (oj', ox', uadd nnz 1)
     else Ok (oj, ox, nnz)) = Ok (oj1, ox1, nnz + lenN new) /\
    lenN oj1 = lenN oj /\ lenN ox1 = lenN ox /\
    (forall t, t < nnz -> nthN oj1 t 0 = nthN oj t 0 /\ nthN ox1 t zero = nthN ox t zero) /\
    segN Ops oj1 ox1 nnz (nnz + lenN new) = new.
Proof using Type.
  clear HA HB Hd Hsz Hsr. intros Hn Hlx Hlo new. unfold new, stored. rewrite sel_cons. cbn [sel map filter].
  destruct (eis_zero Ops (h k)); cbn [negb].
  - exists oj, ox. rewrite lenN_nil, N.add_0_r. repeat split. apply segN_nil. lia.
  - rewrite !setN_ok by lia. cbn [bind]. rewrite uadd_small by lia. eexists _, _. split; [reflexivity|].
    rewrite !lenN_updn by lia. split; [reflexivity|]. split; [reflexivity|]. split.
    + intros t Ht. rewrite !nthN_updn by lia. destruct (N.eqb_spec t nnz); [lia|]. split; reflexivity.
    + change (lenN [(k, h k)]) with 1. rewrite segN_cons, segN_nil by lia.
      rewrite !nthN_updn, N.eqb_refl by lia. reflexivity.
Qed.

Lemma emit_spec : forall D head next sums oj ox nnz,
  NoDup D -> chain next head D -> (forall k, In k D -> k < lenN next) ->
  lenN sums = lenN next -> lenN next < 2 ^ 31 -> lenN ox = lenN oj ->
  nnz + lenN D <= lenN oj -> lenN oj < 2 ^ 31 ->
  let e := stored Ops D (fun k => nthN sums k zero) in
  exists next' sums' oj' ox',
    emit_loop Ops (length D) head next sums oj ox nnz = Ok (next', sums', oj', ox', nnz + lenN e) /\
    lenN next' = lenN next /\ lenN sums' = lenN sums /\ lenN oj' = lenN oj /\ lenN ox' = lenN ox /\
    (forall k, nthN next' k (-1)%Z = if memN k D then (-1)%Z else nthN next k (-1)%Z) /\
    (forall k, nthN sums' k zero = if memN k D then zero else nthN sums k zero) /\
    (forall t, t < nnz -> nthN oj' t 0 = nthN oj t 0 /\ nthN ox' t zero = nthN ox t zero) /\
    segN Ops oj' ox' nnz (nnz + lenN e) = e.
Proof using Type.
  clear HA HB Hd Hsz Hsr. induction D as [|k D IH]; intros head next sums oj ox nnz Hnd Hch Hin Hls Hln Hlx Hfit Hlo e.
  - cbn [length emit_loop]. exists next, sums, oj, ox. subst e. cbn [stored sel map filter].
    rewrite lenN_nil, N.add_0_r. repeat split; try reflexivity. apply segN_nil. lia.
  - destruct Hch as (-> & Hch). inversion Hnd as [|? ? Hnk Hnd']; subst.
    assert (Hk : k < lenN next) by (apply Hin; left; reflexivity).
    rewrite lenN_cons in Hfit.
    cbn [length emit_loop]. rewrite zidx_of_N.
    rewrite (getN_ok sums k zero) by lia. cbn [bind].
    rewrite u32_small by lia.
    set (s := nthN sums k zero) in *.
    set (next1 := updn (N.to_nat k) next (-1)%Z).
    set (sums1 := updn (N.to_nat k) sums zero).
    assert (Hch1 : chain next1 (nthN next k (-1)%Z) D).
    { apply (chain_ext next); [|exact Hch]. intros x Hx. unfold next1. rewrite nthN_updn by lia.
      destruct (N.eqb_spec x k); [subst; tauto|reflexivity]. }
    assert (Hin1 : forall x, In x D -> x < lenN next1).
    { intros x Hx. unfold next1. rewrite lenN_updn by lia. apply Hin. right. exact Hx. }
    assert (Hls1 : lenN sums1 = lenN next1).
    { unfold sums1, next1. rewrite !lenN_updn by lia. exact Hls. }
    assert (Hln1 : lenN next1 < 2 ^ 31) by (unfold next1; rewrite lenN_updn by lia; exact Hln).
    assert (He1 : stored Ops D (fun x => nthN sums1 x zero) = stored Ops D (fun x => nthN sums x zero)).
    { apply sel_ext. intros x Hx. unfold sums1. rewrite nthN_updn by lia.
      destruct (N.eqb_spec x k); [subst; tauto|split; reflexivity]. }
    (* the sum of column k is stored at nnz unless it is zero *)
    set (new := stored Ops [k] (fun x => nthN sums x zero)).
    assert (Hnew : lenN new <= 1) by apply (sel_len _ [k]).
    destruct (emit_store k (fun x => nthN sums x zero) oj ox nnz) as (oj1 & ox1 & Hst & Lo1 & Lx1 & O0 & Onew);
      [lia|lia|lia|]. fold s new in Hst, Lo1, Lx1, O0, Onew. rewrite Hst. cbn [bind].
    rewrite (getN_ok next k (-1)%Z) by lia. cbn [bind].
    rewrite !setN_ok by lia. cbn [bind]. fold next1 sums1.
    destruct (IH (nthN next k (-1)%Z) next1 sums1 oj1 ox1 (nnz + lenN new) Hnd' Hch1 Hin1 Hls1 Hln1
                 ltac:(lia) ltac:(lia) ltac:(lia))
      as (next' & sums' & oj' & ox' & Hrun & L1 & L2 & L3 & L4 & N1 & S1 & O1 & O2).
    rewrite He1 in Hrun, O2.
    subst e. change (k :: D) with ([k] ++ D). unfold stored. rewrite sel_app.
    fold (stored Ops [k] (fun x => nthN sums x zero)). fold new. rewrite lenN_app, N.add_assoc.
    exists next', sums', oj', ox'. split; [exact Hrun|].
    split; [unfold next1 in L1; rewrite lenN_updn in L1 by lia; exact L1|].
    split; [unfold sums1 in L2; rewrite lenN_updn in L2 by lia; exact L2|].
    split; [lia|]. split; [lia|].
    split; [intros c; rewrite N1; apply nthN_updn_memN; lia|].
    split; [intros c; rewrite S1; apply nthN_updn_memN; lia|].
    split.
    + intros t Ht. destruct (O1 t ltac:(lia)) as (-> & ->). apply O0, Ht.
    + rewrite (segN_app _ _ _ nnz (nnz + lenN new)) by lia. f_equal; [|exact O2].
      etransitivity; [|exact Onew]. apply segN_ext. intros t T1 T2. apply O1, T2.
Qed.

(* inside a row, after the items L: the columns met so far are threaded through next[] from head, the latest first,
   len counts them, every other next[k] is -1, and sums[k] is the sum of the items of column k *)
Definition Q2 (L : list (N * E)) (st : list Z * list E * Z * N) : Prop :=
  let '(next, sums, head, len) := st in
  lenN next = ccol B /\ lenN sums = ccol B /\
  (forall k, In k (map fst L) -> k < ccol B) /\
  chain next head (disc (map fst L)) /\
  (forall k, k < ccol B -> ~ In k (map fst L) -> nthN next k (-1)%Z = (-1)%Z) /\
  len = lenN (disc (map fst L)) /\
  (forall k, k < ccol B -> nthN sums k zero = csum k L).

(* the two nested loops of pass 2 over row i of A, as the model writes them *)
Definition p2_kbody (v : E) (kk : N) (st : list Z * list E * Z * N) : res (list Z * list E * Z * N) :=
  let '(next, sums, head, length) := st in
  do k <- getN (cj B) kk;
  do sk <- getN sums k;
  do bv <- getN (cx B) kk;
  do sums' <- setN sums k (eadd Ops sk (emul Ops v bv));
  do nk <- getN next k;
  if (nk =? -1)%Z then
    do next' <- setN next k head;
    Ok (next', sums', Z.of_N k, uadd length 1)
  else Ok (next, sums', head, length).

Definition p2_jbody (jj : N) (st : list Z * list E * Z * N) : res (list Z * list E * Z * N) :=
  do j <- getN (cj A) jj;
  do v <- getN (cx A) jj;
  do ka <- getN (cp B) j;
  do kb <- getN (cp B) (uadd j 1);
  for_range ka kb (p2_kbody v) st.

Lemma p2_kstep jj kk L st :
  nthN (cj A) jj 0 < crow B -> pN B (nthN (cj A) jj 0) <= kk -> kk < pN B (nthN (cj A) jj 0 + 1) ->
  Q2 L st ->
  exists st', p2_kbody (nthN (cx A) jj zero) kk st = Ok st' /\
    Q2 (L ++ [(nthN (cj B) kk 0, emul Ops (nthN (cx A) jj zero) (nthN (cx B) kk zero))]) st'.
Proof.
  intros Hj K1 K2 HQ. destruct st as [[[next sums] head] len]. destruct HQ as (Qa & Qb & Qc & Qd & Qe & Qf & Qg).
  unfold p2_kbody.
  destruct (posB _ kk Hj K1 K2) as (P1 & P2 & P3).
  set (k := nthN (cj B) kk 0) in *.
  set (x := emul Ops (nthN (cx A) jj zero) (nthN (cx B) kk zero)).
  rewrite (getN_ok (cj B) kk 0) by lia. cbn [bind]. fold k.
  rewrite (getN_ok sums k zero) by lia. cbn [bind].
  rewrite (getN_ok (cx B) kk zero) by lia. cbn [bind]. fold x.
  rewrite setN_ok by lia. cbn [bind].
  rewrite (getN_ok next k (-1)%Z) by lia. cbn [bind].
  assert (Hin : forall c, In c (map fst (L ++ [(k, x)])) -> c < ccol B).
  { intros c. rewrite map_app, in_app_iff. cbn [map fst In]. intros [H|[<-|[]]]; auto. }
  assert (Hsum : forall c, c < ccol B ->
            nthN (updn (N.to_nat k) sums (eadd Ops (nthN sums k zero) x)) c zero = csum c (L ++ [(k, x)])).
  { intros c Hc. rewrite nthN_updn by lia. rewrite (csum_snoc Ops Hsr). cbn [fst snd].
    destruct (N.eqb_spec c k) as [->|Hne].
    - rewrite N.eqb_refl. rewrite Qg by lia. reflexivity.
    - destruct (N.eqb_spec k c); [congruence|]. apply Qg; assumption. }
  destruct (memN k (map fst L)) eqn:Hmem.
  - (* k already in the list *)
    assert (Hk : In k (disc (map fst L))) by (apply disc_in, memN_spec; assumption).
    pose proof (chain_next_ne next _ head Qd k Hk) as Hne.
    destruct (Z.eqb_spec (nthN next k (-1)%Z) (-1)%Z) as [|_]; [contradiction|].
    eexists. split; [reflexivity|].
    assert (Hdisc : disc (map fst (L ++ [(k, x)])) = disc (map fst L)).
    { rewrite map_app. cbn [map fst]. apply disc_snoc_old, Hmem. }
    unfold Q2. rewrite Hdisc.
    split; [assumption|]. split; [rewrite lenN_updn; lia|]. split; [assumption|].
    split; [assumption|]. split; [|split; [assumption|assumption]].
    intros c Hc Hnc. apply Qe; [assumption|]. intros Hc'. apply Hnc.
    rewrite map_app, in_app_iff. left. assumption.
  - (* a new column *)
    assert (Hk : ~ In k (map fst L)) by (apply memN_false; assumption).
    rewrite (Qe k) by (assumption || lia). cbn [Z.eqb].
    replace ((-1 =? -1)%Z) with true by reflexivity.
    rewrite setN_ok by lia. cbn [bind].
    assert (Hdisc : disc (map fst (L ++ [(k, x)])) = k :: disc (map fst L)).
    { rewrite map_app. cbn [map fst]. apply disc_snoc_new, Hmem. }
    assert (Hb : lenN (disc (map fst (L ++ [(k, x)]))) <= ccol B) by apply disc_bounded, Hin.
    rewrite Hdisc, lenN_cons in Hb.
    pose proof colB_small.
    rewrite uadd_small by lia.
    eexists. split; [reflexivity|].
    unfold Q2. rewrite Hdisc.
    split; [rewrite lenN_updn; lia|]. split; [rewrite lenN_updn; lia|]. split; [assumption|].
    split; [|split; [|split; [rewrite lenN_cons; lia|assumption]]].
    + cbn [chain]. split; [reflexivity|]. rewrite nthN_updn by lia. rewrite N.eqb_refl.
      apply (chain_ext next); [|assumption].
      intros c Hc. rewrite nthN_updn by lia. destruct (N.eqb_spec c k) as [->|]; [|reflexivity].
      rewrite disc_in in Hc. contradiction.
    + intros c Hc Hnc. rewrite map_app, in_app_iff in Hnc. cbn [map fst In] in Hnc.
      rewrite nthN_updn by lia. destruct (N.eqb_spec c k) as [->|]; [tauto|].
      apply Qe; [assumption|tauto].
Qed.

Lemma p2_row i st :
  i < crow A ->
  Q2 [] st ->
  exists st', for_range (pN A i) (pN A (i + 1)) p2_jbody st = Ok st' /\ Q2 (items i) st'.
Proof.
  intros Hi HQ.
  apply (row_loops Q2 p2_jbody (fun jj => p2_kbody (nthN (cx A) jj zero))); [exact Hi| | |exact HQ].
  - intros jj s K1 K2. destruct (posA i jj Hi K1 K2) as (P1 & P2 & P3). unfold p2_jbody.
    rewrite (getN_ok (cj A) jj 0) by lia. cbn [bind]. rewrite (getN_ok (cx A) jj zero) by lia. cbn [bind].
    exact (getB _ (fun ka kb => for_range ka kb (p2_kbody (nthN (cx A) jj zero)) s) P3).
  - intros jj kk L s K1 K2 K3 K4. destruct (posA i jj Hi K1 K2) as (_ & _ & P3). apply p2_kstep; assumption.
Qed.

(* before row i: next[] and sums[] are back to their initial contents (emit_loop resets what it visits), and rows
   0 .. i-1 of the output hold [em r] from position psum2 r on, inside arrays sized by pass 1 (psum) *)
Definition R2 (i : N) (st : list N * list N * list E * list Z * list E * N) : Prop :=
  let '(p, oj, ox, next, sums, nnz) := st in
  lenN p = crow A + 1 /\ lenN oj = psum (crow A) /\ lenN ox = psum (crow A) /\
  lenN next = ccol B /\ lenN sums = ccol B /\
  (forall k, k < ccol B -> nthN next k (-1)%Z = (-1)%Z) /\
  (forall k, k < ccol B -> nthN sums k zero = zero) /\
  nnz = psum2 i /\
  (forall r, r <= i -> nthN p r 0 = psum2 r) /\
  (forall r, r < i -> segN Ops oj ox (psum2 r) (psum2 (r + 1)) = em r).

(* one row of pass 2, as the model writes it *)
Definition p2_ibody (i : N) (st : list N * list N * list E * list Z * list E * N) :
    res (list N * list N * list E * list Z * list E * N) :=
  let '(p, oj, ox, next, sums, nnz) := st in
  do a <- getN (cp A) i;
  do b <- getN (cp A) (uadd i 1);
  do '(next1, sums1, head, length) <- for_range a b p2_jbody (next, sums, (-2)%Z, 0);
  do '(next2, sums2, oj', ox', nnz') <- emit_loop Ops (N.to_nat length) head next1 sums1 oj ox nnz;
  do p' <- setN p (uadd i 1) nnz';
  Ok (p', oj', ox', next2, sums2, nnz').

(* a row: accumulate it in sums[] and the linked list (p2_row), emit it at nnz (emit_spec), record the new end *)
Lemma p2_istep i st : i < crow A -> R2 i st -> exists st', p2_ibody i st = Ok st' /\ R2 (i + 1) st'.
Proof using HA HB Hd Hsz Hsr.
  intros Hi HR. destruct st as [[[[[p oj] ox] next] sums] nnz].
  destruct HR as (Ra & Rb & Rc & Rd & Re & Rf & Rg & Rh & Ri & Rk). unfold p2_ibody.
  pose proof rowA_small as Hrow. pose proof colA_small as Hcol. pose proof colB_small as HcolB.
  rewrite (getN_p A i wfA) by lia. cbn [bind].
  rewrite uadd_small by lia.
  rewrite (getN_p A (i + 1) wfA) by lia. cbn [bind].
  destruct (p2_row i (next, sums, (-2)%Z, 0) Hi)
    as ([[[next1 sums1] head] len] & Hrow' & (Qa & Qb & Qc & Qd & Qe & Qf & Qg)).
  { unfold Q2. cbn [map]. split; [assumption|]. split; [assumption|].
    split; [intros ? []|]. split; [reflexivity|]. split; [intros; apply Rf; assumption|].
    split; [reflexivity|]. intros k Hk. rewrite csum_nil. apply Rg; assumption. }
  rewrite Hrow'. cbn [bind].
  set (D := disc (map fst (items i))) in *.
  assert (HDlt : forall k, In k D -> k < ccol B).
  { intros k Hk. unfold D in Hk. rewrite disc_in in Hk. apply Qc; assumption. }
  assert (Hfit : psum2 i + cnt i <= psum (crow A)).
  { pose proof (psum2_le i). pose proof (psum_succ i). pose proof (psum_mono (i + 1) (crow A) ltac:(lia)). lia. }
  pose proof (psum_small (crow A) ltac:(lia)) as Hn1.
  replace (N.to_nat len) with (length D) by (rewrite Qf; unfold lenN; lia).
  destruct (emit_spec D head next1 sums1 oj ox nnz (disc_nodup _) Qd)
    as (next2 & sums2 & oj' & ox' & Hemit & L1 & L2 & L3 & L4 & N1 & S1 & O1 & O2).
  { intros k Hk. specialize (HDlt k Hk). lia. }
  { lia. } { lia. } { lia. }
  { change (lenN D) with (cnt i). lia. }
  { lia. }
  assert (Hem : stored Ops D (fun k => nthN sums1 k zero) = em i).
  { unfold em. fold D. apply sel_ext. intros k Hk. rewrite Qg by (specialize (HDlt k Hk); lia). split; reflexivity. }
  rewrite Hem in Hemit, O2.
  rewrite Hemit. cbn [bind].
  rewrite setN_ok by lia. cbn [bind]. eexists. split; [reflexivity|].
  assert (Hnn : nnz + lenN (em i) = psum2 (i + 1)).
  { rewrite psum2_succ. unfold cnt2. lia. }
  unfold R2. split; [rewrite lenN_updn; lia|]. split; [lia|]. split; [lia|].
  split; [lia|]. split; [lia|].
  split; [|split; [|split; [exact Hnn|split]]].
  + intros k Hk. rewrite N1. destruct (memN k D) eqn:Hm; [reflexivity|].
    apply Qe; [assumption|]. apply memN_false in Hm. unfold D in Hm. rewrite disc_in in Hm. exact Hm.
  + intros k Hk. rewrite S1. destruct (memN k D) eqn:Hm; [reflexivity|].
    rewrite Qg by assumption. apply csum_notin.
    apply memN_false in Hm. unfold D in Hm. rewrite disc_in in Hm. exact Hm.
  + intros r Hr. rewrite nthN_updn by lia.
    destruct (N.eqb_spec r (i + 1)) as [->|]; [exact Hnn|]. apply Ri. lia.
  + intros r Hr. destruct (N.eq_dec r i) as [->|Hne].
    * rewrite <- Hnn, <- Rh. exact O2.
    * rewrite <- (Rk r) by lia. apply segN_ext. intros t T1 T2. apply O1.
      pose proof (psum2_mono (r + 1) i ltac:(lia)). lia.
Qed.

Theorem pass2_spec (C0 : csr E) :
  lenN (cp C0) = crow A + 1 -> lenN (cj C0) = psum (crow A) -> lenN (cx C0) = psum (crow A) ->
  exists p2 j2 x2,
    matmat_pass2 Ops A B C0 = Ok (Build_csr p2 j2 x2 (crow C0) (ccol C0)) /\
    lenN p2 = crow A + 1 /\ lenN j2 = psum2 (crow A) /\ lenN x2 = psum2 (crow A) /\
    (forall r, r <= crow A -> nthN p2 r 0 = psum2 r) /\
    (forall i, i < crow A ->
       Permutation (segN Ops j2 x2 (psum2 i) (psum2 (i + 1))) (em i) /\
       srt N.le (segN Ops j2 x2 (psum2 i) (psum2 (i + 1)))).
Proof using HA HB Hd Hsz Hsr.
  intros HC1 HC2 HC3. unfold matmat_pass2.
  rewrite setN_ok by lia. cbn [bind].
  match goal with |- context [for_range 0 (crow A) ?body ?s] =>
    change (for_range 0 (crow A) body s) with (for_range 0 (crow A) p2_ibody s);
    destruct (for_range_inv R2 p2_ibody 0 (crow A) s) as (st' & Hrun & HR) end.
  - lia.
  - unfold R2. split; [rewrite lenN_updn; lia|]. split; [assumption|]. split; [assumption|].
    split; [rewrite lenN_repeat; lia|]. split; [rewrite lenN_repeat; lia|].
    split; [intros; apply nthN_repeat; lia|]. split; [intros; apply nthN_repeat; lia|].
    split; [reflexivity|]. split; [|intros; lia].
    intros r Hr. replace r with 0 by lia. rewrite nthN_updn by lia. reflexivity.
  - intros i st _ Hi HR. apply p2_istep; assumption.
  - rewrite Hrun. destruct st' as [[[[[p2 oj] ox] next] sums] nnz]. cbn [bind].
    destruct HR as (Ra & Rb & Rc & _ & _ & _ & _ & Rh & Ri & Rk).
    pose proof (psum2_le (crow A)) as Hle. pose proof (psum_small (crow A) ltac:(lia)) as Hn1.
    pose proof rowA_small as Hrow.
    destruct (sort_indices_gen Ops p2 (resizeN oj nnz 0) (resizeN ox nnz zero) (crow A))
      as (j2 & x2 & Hs & Lj & Lx & Hperm & _).
    + exact Ra.
    + intros i Hi. rewrite !Ri by lia. rewrite psum2_succ. lia.
    + rewrite Ri by lia. rewrite lenN_resizeN. lia.
    + rewrite !lenN_resizeN. reflexivity.
    + rewrite lenN_resizeN. lia.
    + exact Hrow.
    + rewrite Hs. cbn [bind]. rewrite lenN_resizeN in Lj. rewrite lenN_resizeN in Lx.
      exists p2, j2, x2. split; [reflexivity|]. split; [exact Ra|].
      split; [lia|]. split; [lia|]. split; [exact Ri|].
      intros i Hi. destruct (Hperm i Hi) as (P1 & P2). rewrite !Ri in P1, P2 by lia.
      split; [|exact P2]. eapply Permutation_trans; [exact P1|]. rewrite <- (Rk i Hi).
      erewrite (segN_ext Ops oj ox); [apply Permutation_refl|]. intros t T1 T2. pose proof (psum2_mono (i + 1) (crow A) ltac:(lia)).
      rewrite !nthN_resizeN by lia. split; reflexivity.
Qed.

End Passes.
