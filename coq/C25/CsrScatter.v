(* C25 -- the passes of a counting sort.  Counting: one counter per key is incremented for every item.
   Scatter: items (key, (column, value)) are written one after another, each behind those of its key
   already written, into buckets laid out by the number of items with a smaller key; afterwards bucket r
   holds the items of key r in their original order.  CSRMatrix::from_coo sorts the coordinate list by
   row this way, CSRMatrix::transpose the stored entries by column (the prefix sums between the two
   passes are computed differently there and stay with them). *)
From SE Require Export C25.CsrRows.
Local Open Scope N_scope.
Local Open Scope res_scope.

Lemma firstn_succ_nth {A} (l : list A) d : forall n, (n < length l)%nat ->
  firstn (S n) l = firstn n l ++ [nth n l d].
Proof.
  induction l as [|a l IH]; intros n Hn; cbn [length] in Hn; [lia|].
  destruct n; [reflexivity|]. cbn [firstn nth app]. f_equal. apply IH. lia.
Qed.

(* the counting pass; the counter of item n is at position g n = wr (its key) *)
Lemma count_loop (keys : list N) (wr g : N -> N) nnz len :
  nnz <= lenN keys -> nnz < 2 ^ 31 -> (forall n, n < nnz -> wr (nthN keys n 0) = g n /\ g n < len) ->
  exists p1,
    for_range 0 nnz (fun n p => do r <- getN keys n; do v <- getN p (wr r); setN p (wr r) (uadd v 1))
      (repeat 0 (N.to_nat len)) = Ok p1 /\
    lenN p1 = len /\ forall pos, pos < len -> nthN p1 pos 0 = cnt g pos nnz.
Proof.
  intros Hk Hs Hg.
  apply (for_range_inv (fun n p => lenN p = len /\ forall pos, pos < len -> nthN p pos 0 = cnt g pos n)).
  - lia.
  - split; [rewrite lenN_repeat; lia|]. intros pos Hp. rewrite cnt_0. apply nthN_repeat. lia.
  - intros n p _ Hn (L & C). destruct (Hg n Hn) as (Hgn & Hlt).
    rewrite (getN_ok keys n 0) by lia. cbn [bind]. rewrite Hgn.
    rewrite (getN_ok p (g n) 0) by lia. cbn [bind]. rewrite setN_ok by lia.
    eexists; split; [reflexivity|]. split; [rewrite lenN_updn; lia|].
    intros pos Hp. rewrite nthN_updn by lia. rewrite cnt_succ, (N.eqb_sym (g n) pos).
    destruct (N.eqb_spec pos (g n)) as [->|]; [|rewrite C by lia; lia].
    rewrite C by lia. pose proof (cnt_le g (g n) n). apply uadd_small. lia.
Qed.

Section Scatter.
Context {E : Type}.
Variable Ops : eops E.
Notation segN := (segN Ops).
Notation e0 := (ezero Ops).
Notation tri := (N * (N * E))%type.

(* the items of key r, and the first n items *)
Definition rowl (L : list tri) (r : N) : list (N * E) := map snd (filter (fun t => fst t =? r) L).
Definition pre (L : list tri) (n : N) : list tri := firstn (N.to_nat n) L.

Lemma rowl_app L1 L2 r : rowl (L1 ++ L2) r = rowl L1 r ++ rowl L2 r.
Proof. unfold rowl. rewrite filter_app, map_app. reflexivity. Qed.

Lemma rowl_nil r : rowl [] r = [].
Proof. reflexivity. Qed.

Lemma rowl_single t r : rowl [t] r = if fst t =? r then [snd t] else [].
Proof. unfold rowl. cbn [filter]. destruct (fst t =? r); reflexivity. Qed.

Lemma rowl_flat_map {X} (g : X -> list tri) l r : rowl (flat_map g l) r = flat_map (fun i => rowl (g i) r) l.
Proof. induction l as [|a l IH]; [reflexivity|]. cbn [flat_map]. rewrite rowl_app, IH. reflexivity. Qed.

Lemma pre_0 L : pre L 0 = [].
Proof. reflexivity. Qed.

Lemma pre_succ L n d : n < lenN L -> pre L (n + 1) = pre L n ++ [nthN L n d].
Proof.
  intros H. unfold pre, nthN. replace (N.to_nat (n + 1)) with (S (N.to_nat n)) by lia.
  apply firstn_succ_nth. unfold lenN in H. lia.
Qed.

Lemma pre_all L : pre L (lenN L) = L.
Proof. unfold pre. rewrite lenN_nat. apply firstn_all. Qed.

Variable L : list tri.
Variable kf : N -> N.     (* the key of the n-th item *)
Let d : tri := (0, (0, e0)).
Variable nnz : N.
Hypothesis HL : lenN L = nnz.
Hypothesis Hkf : forall n, n < nnz -> fst (nthN L n d) = kf n.
Notation B r := (cntlt kf r nnz).

(* after n items, bucket r holds the items of key r among them *)
Definition scat (n : N) (j_ : list N) (x_ : list E) : Prop :=
  lenN j_ = nnz /\ lenN x_ = nnz /\
  forall r, segN j_ x_ (B r) (B r + cnt kf r n) = rowl (pre L n) r.

Lemma scat_0 j_ x_ : lenN j_ = nnz -> lenN x_ = nnz -> scat 0 j_ x_.
Proof using Type.
  intros Lj Lx. split; [exact Lj|]. split; [exact Lx|]. intros r.
  rewrite pre_0, cnt_0, rowl_nil, N.add_0_r. apply segN_nil. reflexivity.
Qed.

Lemma scat_dest n : n < nnz -> B (kf n) + cnt kf (kf n) n < nnz.
Proof using Type.
  intros Hn. clear HL Hkf. pose proof (cnt_lt kf (kf n) n nnz Hn eq_refl) as Hlt. pose proof (cntlt_le kf (kf n + 1) nnz) as Hle.
  rewrite cntlt_succ_c in Hle. lia.
Qed.

Lemma scat_step n j_ x_ c v : n < nnz -> snd (nthN L n d) = (c, v) -> scat n j_ x_ ->
  let dest := N.to_nat (B (kf n) + cnt kf (kf n) n) in
  scat (n + 1) (updn dest j_ c) (updn dest x_ v).
Proof using HL Hkf.
  intros Hn Hcv (Lj & Lx & HC). pose proof (scat_dest n Hn) as Hdest.
  set (r := kf n) in *. set (dst := B r + cnt kf r n) in *. cbn zeta.
  split; [rewrite lenN_updn by lia; exact Lj|]. split; [rewrite lenN_updn by lia; exact Lx|].
  intros r'. rewrite cnt_succ. fold r.
  rewrite (pre_succ L n d ltac:(lia)), rowl_app, rowl_single, (Hkf n Hn), Hcv. fold r.
  destruct (N.eqb_spec r r') as [<-|Hne].
  - (* the bucket written to grows by one *)
    replace (B r + (cnt kf r n + 1)) with (dst + 1) by (unfold dst; lia).
    rewrite segN_snoc by (unfold dst; lia).
    rewrite !nthN_updn by lia. rewrite !N.eqb_refl. f_equal.
    rewrite <- (HC r). fold dst. apply segN_ext. intros k K1 K2.
    rewrite !nthN_updn by lia. destruct (N.eqb_spec k dst); [lia|]. split; reflexivity.
  - (* the other buckets lie wholly before or behind the position written *)
    rewrite N.add_0_r, app_nil_r. rewrite <- (HC r'). apply segN_ext. intros k K1 K2.
    rewrite !nthN_updn by lia.
    pose proof (cnt_mono kf r' nnz n ltac:(lia)) as Hle'.
    destruct (N.eqb_spec k dst) as [->|]; [exfalso|split; reflexivity].
    destruct (N.lt_ge_cases r' r) as [Hlt'|Hge'].
    + pose proof (cntlt_mono_c kf nnz (r' + 1) r ltac:(lia)) as Hm.
      rewrite cntlt_succ_c in Hm. unfold dst in *. lia.
    + pose proof (cntlt_mono_c kf nnz (r + 1) r' ltac:(lia)) as Hm.
      pose proof (cnt_lt kf r n nnz Hn eq_refl).
      rewrite cntlt_succ_c in Hm. unfold dst in *. lia.
Qed.

Lemma scat_all j_ x_ : scat nnz j_ x_ -> forall r, segN j_ x_ (B r) (B (r + 1)) = rowl L r.
Proof using HL. intros (_ & _ & H) r. rewrite cntlt_succ_c, H, <- HL, pre_all. reflexivity. Qed.

End Scatter.
