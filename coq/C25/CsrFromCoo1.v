(* C25 -- from_coo, part 1: grouping of adjacent equal columns, csr_sum_duplicates. *)
From SE Require Export C25.CsrRows.
From Coq Require Export Permutation.
Local Open Scope N_scope.
Local Open Scope res_scope.

Section FromCoo1.
Context {E : Type}.
Variable Ops : eops E.
Notation mat := (csr E).
Notation entry := (entry Ops).
Notation row_of := (row_of Ops).
Notation lookup := (lookup Ops).
Notation segN := (segN Ops).
Notation e0 := (ezero Ops).

Definition row_nondecr (m : mat) (i : N) : Prop :=
  forall a b, pN m i <= a -> a < b -> b < pN m (i + 1) -> nthN (cj m) a 0 <= nthN (cj m) b 0.

Lemma row_nondecr_srt (m : mat) i : row_nondecr m i <-> srt N.le (row_of m i).
Proof. rewrite row_of_seg, srt_seg. reflexivity. Qed.

(* grouping adjacent equal columns, values added left to right *)
Fixpoint group_acc (c : N) (acc : E) (l : list (N * E)) : list (N * E) :=
  match l with
  | [] => [(c, acc)]
  | (c', v) :: r =>
      if c' =? c then group_acc c (eadd Ops acc v) r else (c, acc) :: group_acc c' v r
  end.

Definition group (l : list (N * E)) : list (N * E) :=
  match l with
  | [] => []
  | (c, v) :: r => group_acc c v r
  end.

(* v1 + v2 + ... + vn bracketed to the left; the zero element for the empty list *)
Definition lsum (l : list E) : E :=
  match l with
  | [] => e0
  | v :: r => fold_left (eadd Ops) r v
  end.

Definition colvals (c : N) (l : list (N * E)) : list E :=
  map snd (filter (fun e => fst e =? c) l).

Lemma colvals_cons c a l :
  colvals c (a :: l) = if fst a =? c then snd a :: colvals c l else colvals c l.
Proof. unfold colvals. cbn [filter]. destruct (fst a =? c); reflexivity. Qed.

Lemma colvals_none c l : (forall b, In b l -> fst b <> c) -> colvals c l = [].
Proof.
  induction l as [|a l IH]; intros H; [reflexivity|].
  rewrite colvals_cons. destruct (N.eqb_spec (fst a) c) as [Heq|Hne].
  - exfalso. apply (H a); [left; reflexivity|assumption].
  - apply IH. intros b Hb. apply H. right; assumption.
Qed.

Lemma group_acc_in c acc l e :
  In e (group_acc c acc l) -> fst e = c \/ exists e', In e' l /\ fst e = fst e'.
Proof.
  revert c acc. induction l as [|[c' v] r IH]; intros c acc; cbn [group_acc].
  - intros [<-|[]]. left; reflexivity.
  - destruct (N.eqb_spec c' c) as [->|Hne].
    + intros H. apply IH in H as [H|(e' & H1 & H2)]; [left; assumption|].
      right. exists e'. split; [right; assumption|assumption].
    + intros [<-|H]; [left; reflexivity|].
      apply IH in H as [H|(e' & H1 & H2)].
      * right. exists (c', v). split; [left; reflexivity|assumption].
      * right. exists e'. split; [right; assumption|assumption].
Qed.

Lemma group_in l e : In e (group l) -> exists e', In e' l /\ fst e = fst e'.
Proof.
  destruct l as [|[c v] r]; cbn [group]; [intros []|].
  intros H. apply group_acc_in in H as [H|(e' & H1 & H2)].
  - exists (c, v). split; [left; reflexivity|assumption].
  - exists e'. split; [right; assumption|assumption].
Qed.

Lemma group_acc_srt l : forall c acc,
  srt N.le l -> (forall b, In b l -> c <= fst b) -> srt N.lt (group_acc c acc l).
Proof.
  induction l as [|[c' v] r IH]; intros c acc Hs Hc; cbn [group_acc].
  - cbn [srt]. split; [intros b []|exact I].
  - cbn [srt fst] in Hs. destruct Hs as (Hs1 & Hs2).
    destruct (N.eqb_spec c' c) as [->|Hne].
    + apply IH; [assumption|]. intros b Hb. apply Hc. right; assumption.
    + assert (Hlt : c < c') by (specialize (Hc (c', v) (or_introl eq_refl)); cbn [fst] in Hc; lia).
      cbn [srt fst]. split.
      * intros b Hb. apply group_acc_in in Hb as [Hb|(e' & H1 & H2)]; [lia|].
        specialize (Hs1 e' H1). lia.
      * apply IH; assumption.
Qed.

Lemma group_srt l : srt N.le l -> srt N.lt (group l).
Proof.
  destruct l as [|[c v] r]; cbn [group]; [auto|].
  cbn [srt fst]. intros (H1 & H2). apply group_acc_srt; assumption.
Qed.

(* the group being accumulated holds acc plus the values still to come; every other column its left sum *)
Lemma lookup_group_acc l : forall c acc c',
  srt N.le l -> (forall b, In b l -> c <= fst b) ->
  lookup c' (group_acc c acc l) =
    if c' =? c then fold_left (eadd Ops) (colvals c l) acc else lsum (colvals c' l).
Proof.
  induction l as [|[c1 v] r IH]; intros c acc c' Hs Hc; cbn [group_acc].
  - rewrite lookup_cons. cbn [fst snd]. rewrite (N.eqb_sym c c'). destruct (c' =? c); reflexivity.
  - cbn [srt fst] in Hs. destruct Hs as (Hs1 & Hs2). rewrite !colvals_cons. cbn [fst snd].
    destruct (N.eqb_spec c1 c) as [->|Hne1].
    + rewrite IH by (try assumption; intros b Hb; apply Hc; right; assumption).
      destruct (N.eqb_spec c' c) as [->|Hne]; [reflexivity|].
      destruct (N.eqb_spec c c'); [congruence|reflexivity].
    + assert (Hlt : c < c1) by (specialize (Hc (c1, v) (or_introl eq_refl)); cbn [fst] in Hc; lia).
      rewrite lookup_cons. cbn [fst snd]. rewrite (N.eqb_sym c c').
      destruct (N.eqb_spec c' c) as [->|Hne].
      * rewrite colvals_none; [reflexivity|]. intros b Hb. specialize (Hs1 b Hb). lia.
      * rewrite IH by assumption. rewrite (N.eqb_sym c1 c'). destruct (N.eqb_spec c' c1) as [->|]; reflexivity.
Qed.

Lemma lookup_group l c : srt N.le l -> lookup c (group l) = lsum (colvals c l).
Proof.
  destruct l as [|[c1 v] r]; cbn [group]; [reflexivity|].
  cbn [srt fst]. intros (H1 & H2). rewrite lookup_group_acc, colvals_cons by assumption. cbn [fst snd].
  rewrite (N.eqb_sym c1 c). destruct (N.eqb_spec c c1) as [->|]; reflexivity.
Qed.

Lemma dup_run_spec js xs c row_end :
  row_end <= lenN js -> lenN xs = lenN js -> lenN js < 2 ^ 31 ->
  forall fuel jj acc, (N.to_nat (row_end - jj) < fuel)%nat -> jj <= row_end ->
  exists jj' acc', dup_run Ops fuel js xs c row_end jj acc = Ok (jj', acc') /\
    jj <= jj' /\ jj' <= row_end /\
    group_acc c acc (segN js xs jj row_end) = (c, acc') :: group (segN js xs jj' row_end).
Proof.
  intros Hre Hx Hsmall. induction fuel; intros jj acc Hf Hjj; [lia|].
  cbn [dup_run].
  destruct (N.ltb_spec jj row_end) as [Hlt|Hge].
  - rewrite (getN_ok js jj 0) by lia. cbn [bind].
    rewrite (segN_cons Ops js xs jj row_end) by lia. cbn [group_acc].
    destruct (N.eqb_spec (nthN js jj 0) c) as [Heq|Hne].
    + rewrite (getN_ok xs jj e0) by lia. cbn [bind]. rewrite uadd_small by lia.
      destruct (IHfuel (jj + 1) (eadd Ops acc (nthN xs jj e0))) as (jj' & acc' & H1 & H2 & H3 & H4); [lia|lia|].
      exists jj', acc'. repeat split; try assumption; lia.
    + exists jj, acc. repeat split; try lia.
      rewrite (segN_cons Ops js xs jj row_end) by lia. reflexivity.
  - exists jj, acc. repeat split; try lia.
    rewrite segN_nil by lia. reflexivity.
Qed.

Lemma sumdup_row_spec row_end : forall fuel js xs jj nnz,
  row_end <= lenN js -> lenN xs = lenN js -> lenN js < 2 ^ 31 ->
  (N.to_nat (row_end - jj) < fuel)%nat -> nnz <= jj -> jj <= row_end ->
  exists js' xs' nnz', sumdup_row Ops fuel js xs row_end jj nnz = Ok (js', xs', nnz') /\
    lenN js' = lenN js /\ lenN xs' = lenN xs /\ nnz <= nnz' /\ nnz' <= row_end /\
    segN js' xs' nnz nnz' = group (segN js xs jj row_end) /\
    (forall k, k < nnz \/ row_end <= k ->
               nthN js' k 0 = nthN js k 0 /\ nthN xs' k e0 = nthN xs k e0).
Proof.
  induction fuel; intros js xs jj nnz Hre Hx Hsmall Hf Hn Hjj; [lia|].
  cbn [sumdup_row].
  destruct (N.ltb_spec jj row_end) as [Hlt|Hge].
  - rewrite (getN_ok js jj 0) by lia. cbn [bind].
    rewrite (getN_ok xs jj e0) by lia. cbn [bind].
    rewrite uadd_small by lia.
    destruct (dup_run_spec js xs (nthN js jj 0) row_end Hre Hx Hsmall
                (S (N.to_nat (row_end - jj))) (jj + 1) (nthN xs jj e0))
      as (jj' & acc' & D1 & D2 & D3 & D4); [lia|lia|].
    rewrite D1. cbn [bind].
    rewrite (setN_ok js nnz) by lia. cbn [bind].
    rewrite (setN_ok xs nnz) by lia. cbn [bind].
    rewrite uadd_small by lia.
    set (c := nthN js jj 0) in *.
    set (js1 := updn (N.to_nat nnz) js c).
    set (xs1 := updn (N.to_nat nnz) xs acc').
    assert (L1 : lenN js1 = lenN js) by (apply lenN_updn; lia).
    assert (L2 : lenN xs1 = lenN xs) by (apply lenN_updn; lia).
    destruct (IHfuel js1 xs1 jj' (nnz + 1)) as (js' & xs' & nnz' & S1 & S2 & S3 & S4 & S5 & S6 & S7);
      try lia.
    exists js', xs', nnz'. split; [exact S1|].
    split; [lia|]. split; [lia|]. split; [lia|]. split; [lia|]. split.
    + rewrite (segN_cons Ops js' xs' nnz nnz') by lia.
      destruct (S7 nnz) as (E1 & E2); [lia|]. rewrite E1, E2.
      unfold js1 at 1, xs1 at 1. rewrite !nthN_updn by lia. rewrite !N.eqb_refl.
      rewrite S6.
      rewrite (segN_ext Ops js xs js1 xs1 jj' row_end).
      * rewrite (segN_cons Ops js xs jj row_end) by lia. cbn [group]. fold c. rewrite D4. reflexivity.
      * intros k K1 K2. unfold js1, xs1. rewrite !nthN_updn by lia.
        destruct (N.eqb_spec k nnz); [lia|]. split; reflexivity.
    + intros k Hk. destruct (S7 k) as (E1 & E2); [lia|]. rewrite E1, E2.
      unfold js1, xs1. rewrite !nthN_updn by lia.
      destruct (N.eqb_spec k nnz); [lia|]. split; reflexivity.
  - exists js, xs, nnz. split; [reflexivity|].
    repeat split; try lia.
    rewrite !segN_nil by lia. reflexivity.
Qed.

(* The compaction is in place.  Before row i: rows 0 .. i-1 stand grouped at the front of the arrays, p' holding
   their new pointers up to p'[i] = nnz; from re = p[i] on the arrays are untouched, and so are the pointers
   above i.  The write position never overtakes the read position (nnz <= re). *)
Definition sd_inv (m : mat) (i : N) (s : list N * list N * list E * N * N) : Prop :=
  let '(p', js', xs', nnz, re) := s in
  lenN p' = crow m + 1 /\ lenN js' = lenN (cj m) /\ lenN xs' = lenN (cx m) /\
  re = pN m i /\ nnz = nthN p' i 0 /\ nnz <= re /\ nthN p' 0 0 = 0 /\
  (forall k, i < k -> k <= crow m -> nthN p' k 0 = pN m k) /\
  (forall r, r <= i -> nthN p' r 0 <= nnz) /\
  (forall r, r < i -> nthN p' r 0 <= nthN p' (r + 1) 0 /\
     segN js' xs' (nthN p' r 0) (nthN p' (r + 1) 0) = group (segN (cj m) (cx m) (pN m r) (pN m (r + 1)))) /\
  (forall k, re <= k -> nthN js' k 0 = nthN (cj m) k 0 /\ nthN xs' k e0 = nthN (cx m) k e0).

(* one row of csr_sum_duplicates, as the model writes it *)
Definition sd_body (i : N) (st : list N * list N * list E * N * N) : res (list N * list N * list E * N * N) :=
  let '(p, js, xs, nnz, row_end) := st in
  let jj := row_end in
  do row_end' <- getN p (uadd i 1);
  do '(js', xs', nnz') <- sumdup_row Ops (S (N.to_nat (row_end' - jj))) js xs row_end' jj nnz;
  do p' <- setN p (uadd i 1) nnz';
  Ok (p', js', xs', nnz', row_end').

Lemma sd_step (m : mat) i s :
  wf m -> lenN (cj m) < 2 ^ 31 -> crow m < 2 ^ 31 -> i < crow m ->
  sd_inv m i s -> exists s', sd_body i s = Ok s' /\ sd_inv m (i + 1) s'.
Proof.
  intros Hwf Hsmall Hrow Hi HP.
  assert (Hmono : forall a b, a <= b -> b <= crow m -> pN m a <= pN m b).
  { intros; apply pN_mono; assumption. }
  destruct m as [p j x row col]. destruct s as [[[[p' js'] xs'] nnz] re].
  unfold sd_inv, wf, pN in HP, Hwf, Hmono. cbn [cp cj cx crow ccol] in *.
  destruct Hwf as (W1 & W2 & W3 & W4 & W5).
  destruct HP as (L1 & L2 & L3 & -> & Hnz & Hle & H0 & Hrest & Hbnd & Hdone & Hsame).
  unfold sd_body. cbv zeta.
  rewrite uadd_small by lia.
  rewrite (getN_ok p' (i + 1) 0) by lia. cbn [bind].
  rewrite (Hrest (i + 1)) by lia.
  assert (M1 : nthN p i 0 <= nthN p (i + 1) 0) by (apply W3; lia).
  assert (M2 : nthN p (i + 1) 0 <= lenN j) by (rewrite <- W4; apply Hmono; lia).
  destruct (sumdup_row_spec (nthN p (i + 1) 0) (S (N.to_nat (nthN p (i + 1) 0 - nthN p i 0)))
              js' xs' (nthN p i 0) nnz) as (js2 & xs2 & nnz2 & S1 & S2 & S3 & S4 & S5 & S6 & S7); try lia.
  rewrite S1. cbn [bind].
  rewrite (setN_ok p' (i + 1)) by lia. cbn [bind].
  eexists. split; [reflexivity|]. unfold sd_inv, pN. cbn [cp cj cx crow ccol].
  assert (Hp2 : forall k, nthN (updn (N.to_nat (i + 1)) p' nnz2) k 0 = if k =? i + 1 then nnz2 else nthN p' k 0).
  { intros k. apply nthN_updn. lia. }
  split; [rewrite lenN_updn by lia; assumption|].
  split; [lia|]. split; [lia|]. split; [reflexivity|].
  split; [rewrite Hp2, N.eqb_refl; reflexivity|].
  split; [lia|].
  split; [rewrite Hp2; destruct (N.eqb_spec 0 (i + 1)); [lia|assumption]|].
  split; [|split; [|split]].
  + intros k K1 K2. rewrite Hp2. destruct (N.eqb_spec k (i + 1)); [lia|]. apply Hrest; lia.
  + intros r Hr. rewrite Hp2. destruct (N.eqb_spec r (i + 1)); [lia|].
    specialize (Hbnd r ltac:(lia)). lia.
  + intros r Hr. rewrite !Hp2.
    destruct (N.eqb_spec r (i + 1)); [lia|].
    destruct (N.eqb_spec (r + 1) (i + 1)) as [Heq|Hne].
    * assert (r = i) by lia. subst r. rewrite <- Hnz. split; [lia|].
      rewrite S6. f_equal. apply segN_ext. intros k K1 K2. apply Hsame. lia.
    * destruct (Hdone r ltac:(lia)) as (D1 & D2). split; [assumption|].
      rewrite <- D2. apply segN_ext. intros k K1 K2. apply S7. left.
      specialize (Hbnd (r + 1) ltac:(lia)). lia.
  + intros k Hk. destruct (S7 k) as (E1 & E2); [lia|]. rewrite E1, E2. apply Hsame. lia.
Qed.

Theorem sum_duplicates_spec (m : mat) :
  wf m -> lenN (cj m) < 2 ^ 31 -> crow m < 2 ^ 31 ->
  (forall i, i < crow m -> row_nondecr m i) ->
  exists p' j' x', sum_duplicates Ops (cp m) (cj m) (cx m) (crow m) = Ok (p', j', x') /\
    let m' := Build_csr p' j' x' (crow m) (ccol m) in
    canon m' /\
    (forall i, i < crow m -> row_of m' i = group (row_of m i)) /\
    (forall i c, i < crow m -> entry m' i c = lsum (colvals c (row_of m i))).
Proof.
  intros Hwf Hsmall Hrow Hnd.
  assert (Hsrt : forall i, i < crow m -> srt N.le (segN (cj m) (cx m) (pN m i) (pN m (i + 1)))).
  { intros i Hi. rewrite <- row_of_seg. apply row_nondecr_srt. apply Hnd; assumption. }
  clear Hnd.
  destruct m as [p j x row col]. unfold wf, pN in *.
  cbn [cp cj cx crow ccol] in *.
  destruct Hwf as (W1 & W2 & W3 & W4 & W5).
  unfold sum_duplicates.
  match goal with |- context [for_range 0 row ?body ?s] =>
    change (for_range 0 row body s) with (for_range 0 row sd_body s);
    destruct (for_range_inv (sd_inv (Build_csr p j x row col)) sd_body 0 row s) as (s' & Hf & HP) end.
  - lia.
  - unfold sd_inv, pN. cbn [cp cj cx crow ccol]. repeat split; intros; try lia.
    replace r with 0 by lia. lia.
  - intros i s _ Hi HP. apply sd_step; try assumption.
    unfold wf, pN. cbn [cp cj cx crow ccol]. auto.
  - rewrite Hf. cbn [bind]. destruct s' as [[[[p' js'] xs'] nnz] re].
    unfold sd_inv, pN in HP. cbn [cp cj cx crow ccol] in HP.
    destruct HP as (L1 & L2 & L3 & -> & Hnz & Hle & H0 & Hrest & Hbnd & Hdone & Hsame).
    rewrite W4 in Hle.
    eexists _, _, _. split; [reflexivity|]. cbn zeta.
    set (m' := Build_csr p' (resizeN js' nnz 0) (resizeN xs' nnz e0) row col).
    assert (Hrows : forall i, i < row -> row_of m' i = group (segN j x (nthN p i 0) (nthN p (i + 1) 0))).
    { intros i Hi. rewrite row_of_seg. unfold pN, m'. cbn [cp cj cx].
      destruct (Hdone i Hi) as (D1 & D2). rewrite <- D2. apply segN_ext.
      intros k K1 K2. specialize (Hbnd (i + 1) ltac:(lia)).
      rewrite !nthN_resizeN by lia. split; reflexivity. }
    split; [|split].
    + split.
      * unfold wf, pN, m'. cbn [cp cj cx crow]. rewrite !lenN_resizeN.
        repeat split; try assumption; try lia.
        intros i Hi. apply Hdone; assumption.
      * intros i Hi. cbn [crow m'] in Hi. apply (row_sorted_srt Ops). rewrite Hrows by assumption.
        apply group_srt. apply Hsrt; assumption.
    + intros i Hi. rewrite Hrows by assumption. reflexivity.
    + intros i c Hi. unfold CsrSpec.entry. rewrite Hrows by assumption.
      rewrite lookup_group by (apply Hsrt; assumption). reflexivity.
Qed.

End FromCoo1.
