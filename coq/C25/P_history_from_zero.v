(* C25 obligation: the same for every history that starts from the constructor CSRMatrix(row, col), against the all-zero dense matrix. *)
From SE Require Import C25.CsrSet.
Local Open Scope N_scope.
Theorem C25_history_from_zero :
  forall (E : Type) (Ops : eops E),
    zero_test_sound Ops ->
    forall (row col : N) (ops : list hop),
      row < 2 ^ 31 -> col < 2 ^ 31 -> row * col < 2 ^ 31 ->
      Forall (hop_in_range row col) ops ->
      hist_ok Ops row col (fun _ _ => ezero Ops) ops (hrun Ops (mk_zero row col) ops).
Proof. exact @history_from_zero. Qed.
Print Assumptions C25_history_from_zero.
