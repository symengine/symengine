(* C25: the hypotheses of the theorems are met by concrete non-trivial inputs (Gaussian-integer
   entries), and the model computes the expected results on them (evaluated by the kernel). *)
From SE Require Import C25.CsrInst.
Local Open Scope N_scope.

(* the element laws assumed by the theorems hold for the instance that is extracted and run *)
Example C25_gi_laws :
  zero_test_sound gi_ops /\ zero_is_zero gi_ops /\ conj_zero gi_ops /\ comm_monoid gi_ops /\ semiring gi_ops /\
  gi_add gi_zero gi_zero = gi_zero /\ gi_sub gi_zero gi_zero = gi_zero /\ gi_mul gi_zero gi_zero = gi_zero.
Proof.
  repeat split; try reflexivity;
    first [exact gi_zero_test_sound | apply gi_comm_monoid | apply gi_semiring].
Qed.
Print Assumptions C25_gi_laws.

(* the library's own 3 x 3 test matrix satisfies the invariant *)
Definition M3 : csr gi :=
  Build_csr [0; 2; 3; 6] [0; 2; 2; 0; 1; 2] [g 1; g 2; g 3; g 4; g 5; g 6] 3 3.
Example C25_Inv_M3 : Inv M3.
Proof. apply inv_b_sound. vm_compute. reflexivity. Qed.

(* a history with insertions at the front, in the middle and at the end of a row, a replacement,
   two deletions and reads: in range, and the model's outputs *)
Definition H1 : list (hop (E:=gi)) :=
  [HSet 1 1 (7, 1)%Z; HSet 0 1 (g 9); HGet 0 1; HSet 0 1 (g 0); HSet 2 2 (g 0); HSet 2 0 (g (-4)); HGet 2 2; HGet 1 1].
Example C25_history_example :
  Forall (hop_in_range (crow M3) (ccol M3)) H1 /\
  map (fun r => match r with Ok (HVal v) => Some v | _ => None end) (hrun gi_ops M3 H1)
    = [None; None; Some (g 9); None; None; None; Some (g 0); Some (7, 1)%Z] /\
  last (hrun gi_ops M3 H1) ErrFuel = Ok (HVal (7, 1)%Z) /\
  nth 5 (hrun gi_ops M3 H1) ErrFuel
    = Ok (HMat (Build_csr [0; 2; 4; 6] [0; 2; 1; 2; 0; 1] [g 1; g 2; (7, 1)%Z; g 3; g (-4); g 5] 3 3)).
Proof.
  split; [repeat constructor; vm_compute; reflexivity|]. vm_compute. repeat split; reflexivity.
Qed.
Print Assumptions C25_history_example.

(* from_coo: unsorted coordinates with duplicates (one pair cancels) *)
Example C25_from_coo_example :
  let is := [2; 0; 2; 0; 2; 0; 1] in let js := [1; 1; 1; 1; 0; 1; 2] in
  let xs := [g 2; g 1; g 4; g 3; g 5; g (-4); (0, 1)%Z] in
  length is = length xs /\ length js = length xs /\ Forall (fun i => i < 3) is /\ Forall (fun c => c < 3) js /\
  from_coo gi_ops 3 3 is js xs = Ok (Build_csr [0; 1; 2; 4] [1; 2; 0; 1] [g 0; (0, 1)%Z; g 5; g 6] 3 3).
Proof. cbv zeta. repeat split; try (repeat constructor; vm_compute; reflexivity). Qed.

(* binop / transpose / scaling / jacobian on concrete operands *)
Example C25_binop_example :
  Inv M3 /\ lenN (cp (mk_zero (E:=gi) 3 3)) = crow M3 + 1 /\
  binop gi_ops gi_sub M3 M3 (mk_zero 3 3) = Ok (mk_zero 3 3) /\
  binop gi_ops gi_add M3 M3 (mk_zero 3 3)
    = Ok (Build_csr [0; 2; 3; 6] [0; 2; 2; 0; 1; 2] [g 2; g 4; g 6; g 8; g 10; g 12] 3 3).
Proof. split; [exact C25_Inv_M3|]. vm_compute. repeat split; reflexivity. Qed.

Example C25_transpose_example :
  transpose gi_ops M3 false
    = Ok (Build_csr [0; 2; 3; 6] [0; 2; 2; 0; 1; 2] [g 1; g 4; g 5; g 2; g 3; g 6] 3 3).
Proof. vm_compute. reflexivity. Qed.

Example C25_scale_example :
  lenN [g 1; g (-1); g 3] = crow M3 /\
  (forall i, i < crow M3 -> eis_zero gi_ops (nthN [g 1; g (-1); g 3] i (ezero gi_ops)) = false) /\
  scale_rows gi_ops M3 [g 1; g (-1); g 3]
    = Ok (Build_csr [0; 2; 3; 6] [0; 2; 2; 0; 1; 2] [g 1; g 2; g (-3); g 12; g 15; g 18] 3 3).
Proof.
  split; [reflexivity|]. split; [|vm_compute; reflexivity].
  intros i Hi. change (crow M3) with 3 in Hi.
  assert (i = 0 \/ i = 1 \/ i = 2) as [->|[->| ->]] by lia; reflexivity.
Qed.

Example C25_jacobian_example :
  let d := [[g 1; g 0; g 2]; [g 0; g 0; (3, 1)%Z]] in
  (forall i, i < lenN d -> lenN (nthN d i []) = 3) /\
  jacobian gi_ops d 3 = Ok (Build_csr [0; 2; 3] [0; 2; 2] [g 1; g 2; (3, 1)%Z] 2 3).
Proof.
  cbv zeta. split; [|vm_compute; reflexivity].
  intros i Hi. change (lenN _) with 2 in Hi. assert (i = 0 \/ i = 1) as [->| ->] by lia; reflexivity.
Qed.

(* conjugate on a non-square matrix, csr_diagonal with empty rows and missing diagonal entries,
   csr_matmat with B wider than A: hypotheses of the theorems, and results *)
Example C25_conjugate_diagonal_example :
  Inv W_conj /\ Inv W_diag2 /\
  conjugate gi_ops W_conj = Build_csr [0; 1] [1] [(1, -2)%Z] 1 2 /\
  diagonal gi_ops W_diag2 = Ok [g 0] /\ diagonal gi_ops M3 = Ok [g 1; g 0; g 6].
Proof.
  split; [apply inv_b_sound; vm_compute; reflexivity|].
  split; [apply inv_b_sound; vm_compute; reflexivity|].
  vm_compute. repeat split; reflexivity.
Qed.

Example C25_matmat_example :
  Inv W_mmA1 /\ Inv W_mmB1 /\ ccol W_mmA1 = crow W_mmB1 /\ crow W_mmA1 * ccol W_mmB1 < 2 ^ 31 /\
  matmat gi_ops W_mmA1 W_mmB1 = Ok (Build_csr [0; 2; 4] [0; 2; 0; 2] [g 3; g 4; g 6; g 8] 2 3) /\
  Inv W_mmA2 /\ Inv W_mmB2 /\
  matmat gi_ops W_mmA2 W_mmB2 = Ok (Build_csr [0; 2; 4] [0; 1; 0; 1] [g 5; g 6; g 5; g 5] 2 2).
Proof.
  split; [apply inv_b_sound; vm_compute; reflexivity|].
  split; [apply inv_b_sound; vm_compute; reflexivity|].
  split; [reflexivity|]. split; [vm_compute; reflexivity|]. split; [vm_compute; reflexivity|].
  split; [apply inv_b_sound; vm_compute; reflexivity|].
  split; [apply inv_b_sound; vm_compute; reflexivity|].
  vm_compute. reflexivity.
Qed.

(* is_canonical rejects non-monotone row pointers even when nothing is stored *)
Example C25_is_canonical_example :
  is_canonical M3 = Ok true /\ is_canonical W_canon = Ok false /\
  is_canonical (Build_csr [0; 2] [1; 1] [g 1; g 2] 1 2) = Ok false.
Proof. vm_compute. repeat split; reflexivity. Qed.
