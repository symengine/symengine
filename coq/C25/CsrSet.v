(* C25 -- CSRMatrix::set (position search, insertion, replacement, deletion)
   and every history of set/get operations. *)
From SE Require Export C25.CsrProofs.
Local Open Scope N_scope.
Local Open Scope res_scope.

Section SetProofs.
Context {E : Type}.
Variable Ops : eops E.
Notation mat := (csr E).
Notation entry := (entry Ops).
Notation row_of := (row_of Ops).
Notation lookup := (lookup Ops).
Notation segN := (segN Ops).
Notation e0 := (ezero Ops).
Notation Inv := (Inv (E:=E)).

Lemma set_search_spec (m : mat) i c : wf m -> i < crow m -> row_sorted m i -> lenN (cj m) < 2 ^ 31 ->
  forall fuel k en,
    (N.to_nat (en - k) < fuel)%nat ->
    pN m i <= k -> k <= en -> en <= pN m (i + 1) ->
    (forall t, pN m i <= t -> t < k -> nthN (cj m) t 0 < c) ->
    (forall t, en <= t -> t < pN m (i + 1) -> c <= nthN (cj m) t 0) ->
    exists k', set_search fuel (cj m) c k en = Ok k' /\
      pN m i <= k' /\ k' <= pN m (i + 1) /\
      (forall t, pN m i <= t -> t < k' -> nthN (cj m) t 0 < c) /\
      (forall t, k' <= t -> t < pN m (i + 1) -> c <= nthN (cj m) t 0).
Proof.
  intros Hwf Hi Hs Hsmall.
  assert (Hn : pN m (i + 1) <= lenN (cj m)) by (apply pN_le_nnz; [assumption|lia]).
  induction fuel; intros k en Hf H1 H2 H3 Hlo Hhi; [lia|].
  cbn [set_search].
  destruct (N.ltb_spec k en) as [Hlt|Hge].
  - rewrite uadd_small by lia.
    pose proof (half_spec k en Hlt) as (Hm1 & Hm2 & Hm3).
    set (mid := (k + en) / 2) in *. assert (Hmid : k <= mid /\ mid < en) by lia.
    destruct (N.eqb_spec mid k) as [Heq|Hne].
    + rewrite (getN_ok (cj m) k 0) by lia. cbn [bind].
      assert (en = k + 1) by (apply Hm3, Heq). subst en. clear Hm1 Hm2 Hm3.
      destruct (N.ltb_spec (nthN (cj m) k 0) c) as [Hl|Hg].
      * rewrite uadd_small by lia. eexists; split; [reflexivity|]. repeat split; try lia.
        -- intros t T1 T2. destruct (N.eq_dec t k) as [->|]; [assumption|]. apply Hlo; lia.
        -- assumption.
      * eexists; split; [reflexivity|]. repeat split; try lia.
        -- assumption.
        -- intros t T1 T2. destruct (N.eq_dec t k) as [->|]; [assumption|]. apply Hhi; lia.
    + rewrite (getN_ok (cj m) mid 0) by lia. cbn [bind].
      rewrite usub_small by lia.
      rewrite (getN_ok (cj m) (mid - 1) 0) by lia. cbn [bind].
      destruct (N.leb_spec c (nthN (cj m) mid 0)) as [Hc1|Hc1];
        destruct (N.ltb_spec (nthN (cj m) (mid - 1) 0) c) as [Hc2|Hc2]; cbn [andb].
      * (* found: j[mid-1] < c <= j[mid] *)
        eexists; split; [reflexivity|]. repeat split; try lia.
        -- intros t T1 T2. destruct (N.eq_dec t (mid - 1)) as [->|]; [assumption|].
           specialize (Hs t (mid - 1) T1 ltac:(lia) ltac:(lia)). lia.
        -- intros t T1 T2. destruct (N.eq_dec t mid) as [->|]; [assumption|].
           specialize (Hs mid t ltac:(lia) ltac:(lia) T2). lia.
      * (* c <= j[mid-1] *)
        destruct (N.leb_spec c (nthN (cj m) (mid - 1) 0)); [|lia].
        apply IHfuel; try lia; [assumption|].
        intros t T1 T2. destruct (N.eq_dec t (mid - 1)) as [->|]; [assumption|].
        specialize (Hs (mid - 1) t ltac:(lia) ltac:(lia) T2). lia.
      * (* j[mid] < c *)
        destruct (N.leb_spec c (nthN (cj m) (mid - 1) 0)); [lia|].
        rewrite uadd_small by lia.
        apply IHfuel; try lia; [|assumption].
        intros t T1 T2. destruct (N.eq_dec t mid) as [->|]; [assumption|].
        specialize (Hs t mid T1 ltac:(lia) ltac:(lia)). lia.
      * (* c <= j[mid-1] and j[mid] < c: impossible for a sorted row, the code takes the second branch *)
        destruct (N.leb_spec c (nthN (cj m) (mid - 1) 0)); [|lia].
        apply IHfuel; try lia; [assumption|].
        intros t T1 T2. destruct (N.eq_dec t (mid - 1)) as [->|]; [assumption|].
        specialize (Hs (mid - 1) t ltac:(lia) ltac:(lia) T2). lia.
  - exists k. split; [reflexivity|]. repeat split; try lia; [assumption|].
    intros t T1 T2. apply Hhi; lia.
Qed.

Lemma bump_spec (p : list N) (from row : N) (f : N -> N) : row < lenN p -> from <= row + 1 ->
  exists p', bump p from row f = Ok p' /\ lenN p' = lenN p /\
    (forall t, t < from -> nthN p' t 0 = nthN p t 0) /\
    (forall t, from <= t -> t <= row -> nthN p' t 0 = f (nthN p t 0)).
Proof.
  intros Hrow Hfrom. unfold bump.
  destruct (rewrite_loop (fun _ => f) 0 from (row + 1) p (fun l p => do v <- getN p l; setN p l (f v)))
    as (p' & Hr & Hl & Hhi & Hlo); [lia|lia| |].
  - intros k ys K1 K2 Hy. rewrite (getN_ok ys k 0) by lia. reflexivity.
  - exists p'. split; [exact Hr|]. split; [exact Hl|]. split; [intros; apply Hlo; lia|intros; apply Hhi; lia].
Qed.

(* replacement, insertion, deletion, or nothing, at position k of row i:
   m' stores b <= 1 entries (column c, value e') where m stores a <= 1 (column c); e' is zero if b = 0 *)
Lemma set_splice_ok (m m' : mat) i c k a b e' :
  Inv m -> i < crow m -> c < ccol m -> pN m i <= k -> k + a <= pN m (i + 1) -> a <= 1 -> b <= 1 ->
  crow m' = crow m -> ccol m' = ccol m -> lenN (cp m') = lenN (cp m) ->
  (forall t, t <= i -> pN m' t = pN m t) ->
  (forall t, i < t -> t <= crow m -> pN m' t + a = pN m t + b) ->
  lenN (cj m') + a = lenN (cj m) + b -> lenN (cx m') + a = lenN (cx m) + b ->
  (forall t, t < k -> nthN (cj m') t 0 = nthN (cj m) t 0 /\ nthN (cx m') t e0 = nthN (cx m) t e0) ->
  (forall t, k + a <= t ->
     nthN (cj m') (t + b - a) 0 = nthN (cj m) t 0 /\ nthN (cx m') (t + b - a) e0 = nthN (cx m) t e0) ->
  (forall t, pN m i <= t -> t < k -> nthN (cj m) t 0 < c) ->
  (forall t, k + a <= t -> t < pN m (i + 1) -> c < nthN (cj m) t 0) ->
  (a = 1 -> nthN (cj m) k 0 = c) ->
  (b = 0 -> e' = e0) -> (b = 1 -> nthN (cj m') k 0 = c /\ nthN (cx m') k e0 = e') ->
  Inv m' /\ crow m' = crow m /\ ccol m' = ccol m /\
  forall i' c', i' < crow m -> entry m' i' c' = upd (entry m) i c e' i' c'.
Proof.
  intros HI Hi Hc K1 K2 Ha Hb Hrow Hcol Lp Plo Phi Lj Lx Alo Ahi Klo Khi Hold Hnew0 Hnew1.
  pose proof (proj1 (proj1 HI)) as Hwf.
  set (l1 := segN (cj m) (cx m) (pN m i) k). set (l2 := segN (cj m) (cx m) (k + a) (pN m (i + 1))).
  set (old := segN (cj m) (cx m) k (k + a)). set (new := segN (cj m') (cx m') k (k + b)).
  assert (Ri : row_of m i = l1 ++ old ++ l2).
  { rewrite row_of_seg. unfold l1, old, l2. rewrite <- !segN_app by lia. reflexivity. }
  assert (Ri' : row_of m' i = l1 ++ new ++ l2) by (apply splice_row; assumption).
  assert (Ro : forall i', i' < crow m -> i' <> i -> row_of m' i' = row_of m i')
    by (intros; apply (splice_other Ops m m' i k a b); assumption).
  assert (H1 : forall e, In e l1 -> fst e < c).
  { intros e He. apply in_segN in He as (t & T1 & T2 & ->). apply Klo; assumption. }
  assert (H2 : forall e, In e l2 -> c < fst e).
  { intros e He. apply in_segN in He as (t & T1 & T2 & ->). apply Khi; assumption. }
  assert (Ho : forall e, In e old -> fst e = c).
  { intros e He. apply in_segN in He as (t & T1 & T2 & ->). replace t with k by lia. apply Hold. lia. }
  assert (Hn : (forall e, In e new -> fst e = c) /\ lookup c new = e' /\ srt N.lt new).
  { unfold new. destruct (N.eqb_spec b 0) as [->|Hb0].
    - rewrite segN_nil by lia. split; [intros ? []|]. split; [symmetry; exact (Hnew0 eq_refl)|exact I].
    - assert (b = 1) as -> by lia. destruct (Hnew1 eq_refl) as (<- & <-). rewrite segN_cons, segN_nil by lia.
      split; [intros e [<-|[]]; reflexivity|]. rewrite lookup_cons. cbn [fst snd srt]. rewrite N.eqb_refl.
      split; [reflexivity|]. split; [intros ? []|exact I]. }
  destruct Hn as (Hn1 & Hn2 & Hn3).
  split; [|split; [exact Hrow|split; [exact Hcol|]]].
  - apply (Inv_of_rows Ops).
    + apply (splice_wf m m' i k a b); assumption.
    + unfold dims_ok. rewrite Hrow, Hcol. exact (proj2 (proj2 HI)).
    + rewrite Hrow, Hcol. intros i' Hi'. destruct (N.eq_dec i' i) as [->|Hne].
      * rewrite Ri'. apply (row_in_mid 0 (ccol m) c l1 old); try assumption; [|lia].
        rewrite <- Ri. apply Inv_row_in; assumption.
      * rewrite Ro by assumption. apply Inv_row_in; assumption.
  - intros i' c' Hi'. unfold upd, CsrSpec.entry. destruct (N.eqb_spec i' i) as [->|Hne]; cbn [andb].
    + rewrite Ri', Ri. destruct (N.eqb_spec c' c) as [->|Hnc].
      * rewrite <- Hn2. apply lookup_at; [| |exact Hn1]; intros e He; [specialize (H1 e He)|specialize (H2 e He)]; lia.
      * rewrite !(lookup_mid Ops c) by assumption. reflexivity.
    + rewrite Ro by assumption. reflexivity.
Qed.

Theorem set_spec (m : mat) i c e : zero_test_sound Ops -> Inv m -> i < crow m -> c < ccol m ->
  exists m', set Ops m i c e = Ok m' /\ Inv m' /\ crow m' = crow m /\ ccol m' = ccol m /\
    forall i' c', i' < crow m -> entry m' i' c' = upd (entry m) i c e i' c'.
Proof.
  intros Hz HI Hi Hc.
  destruct (Inv_facts Ops m HI) as (Hwf & Hs & Hcols & Hd & S1 & S2 & Lx & Lp & Pn).
  assert (Hmono := pN_mono m Hwf).
  assert (Hn : pN m (i + 1) <= lenN (cj m)) by (apply pN_le_nnz; [assumption|lia]).
  assert (W3 : pN m i <= pN m (i + 1)) by (apply Hwf; assumption).
  unfold set.
  rewrite (getN_p m i Hwf) by lia. cbn [bind].
  rewrite uadd_small by lia. rewrite (getN_p m (i + 1) Hwf) by lia. cbn [bind].
  destruct (set_search_spec m i c Hwf Hi (Hs i Hi) S1 (S (N.to_nat (pN m (i + 1) - pN m i))) (pN m i) (pN m (i + 1)))
    as (k & Hk & K1 & K2 & Klo & Khi); try lia; try (intros; lia).
  rewrite Hk. cbn [bind].
  assert (Hp : forall t, t <= crow m -> pN m t <= lenN (cj m)) by (intros; apply pN_le_nnz; assumption).
  (* is position k a hit? *)
  assert (Hhit : (k < pN m (i + 1) /\ nthN (cj m) k 0 = c /\
                  (if k <? pN m (i + 1) then do jk <- getN (cj m) k; Ok (jk =? c) else Ok false) = Ok true)
              \/ ((forall t, k <= t -> t < pN m (i + 1) -> c < nthN (cj m) t 0) /\
                  (if k <? pN m (i + 1) then do jk <- getN (cj m) k; Ok (jk =? c) else Ok false) = Ok false)).
  { destruct (N.ltb_spec k (pN m (i + 1))) as [Hlt|Hge].
    - rewrite (getN_ok (cj m) k 0) by lia. cbn [bind].
      destruct (N.eqb_spec (nthN (cj m) k 0) c) as [Heq|Hne].
      + left. auto.
      + right. split; [|reflexivity]. intros t T1 T2.
        destruct (N.eq_dec t k) as [->|]; [specialize (Khi k ltac:(lia) T2); lia|].
        specialize (Hs i Hi k t ltac:(lia) ltac:(lia) T2). specialize (Khi k ltac:(lia) ltac:(lia)). lia.
    - right. split; [intros; lia|reflexivity]. }
  destruct Hhit as [(Hlt & Hjk & ->)|(Hgt & ->)]; cbn [bind].
  - (* position k holds column c *)
    assert (Khi1 : forall t, k + 1 <= t -> t < pN m (i + 1) -> c < nthN (cj m) t 0).
    { intros t T1 T2. rewrite <- Hjk. apply (Hs i Hi); lia. }
    destruct (eis_zero Ops e) eqn:Hez; cbn [negb].
    + (* delete *)
      rewrite !eraseN_ok by lia. cbn [bind].
      destruct (bump_spec (cp m) (i + 1) (crow m) (fun v => usub v 1)) as (p' & -> & B2 & B3 & B4); try lia.
      cbn [bind]. eexists; split; [reflexivity|]. rewrite (Hz e Hez).
      apply (set_splice_ok m _ i c k 1 0 (ezero Ops) HI Hi Hc K1); cbn [cp cj cx crow ccol];
        [lia|lia|lia|reflexivity|reflexivity|exact B2| | |apply (lenN_spl k 1 []); lia|apply (lenN_spl k 1 []); lia
        | | |exact Klo|exact Khi1|auto|auto|lia].
      * intros t Ht. apply B3. lia.
      * intros t T1 T2. unfold pN; cbn [cp]. rewrite B4 by lia. fold (pN m t).
        specialize (Hmono t (i + 1)). specialize (Hp t). rewrite usub_small; lia.
      * intros t Ht. split; apply nthN_spl_lo; lia.
      * intros t Ht. split; apply (nthN_spl_hi k 1 []); lia.
    + (* replace *)
      rewrite setN_ok by lia. cbn [bind]. eexists; split; [reflexivity|].
      apply (set_splice_ok m _ i c k 1 1 e HI Hi Hc K1); cbn [cp cj cx crow ccol];
        [lia|lia|lia|reflexivity|reflexivity|reflexivity|reflexivity|reflexivity|reflexivity
        |rewrite lenN_updn by lia; reflexivity| | |exact Klo|exact Khi1|auto|lia|].
      * intros t Ht. rewrite nthN_updn by lia. destruct (N.eqb_spec t k); [lia|]. auto.
      * intros t Ht. replace (t + 1 - 1) with t by lia. rewrite nthN_updn by lia.
        destruct (N.eqb_spec t k); [lia|]. auto.
      * intros _. rewrite nthN_updn, N.eqb_refl by lia. auto.
  - (* column c is not stored in row i *)
    destruct (eis_zero Ops e) eqn:Hez; cbn [negb].
    + (* nothing to do *)
      eexists; split; [reflexivity|]. rewrite (Hz e Hez).
      apply (set_splice_ok m m i c k 0 0 (ezero Ops) HI Hi Hc K1);
        [lia|lia|lia|reflexivity|reflexivity|reflexivity|reflexivity|reflexivity|reflexivity|reflexivity
        |auto| |exact Klo| |lia|auto|lia].
      * intros t Ht. rewrite N.add_0_r, N.sub_0_r. auto.
      * intros t T1 T2. apply Hgt; lia.
    + (* insert *)
      rewrite !insertN_ok by lia. cbn [bind].
      destruct (bump_spec (cp m) (i + 1) (crow m) (fun v => uadd v 1)) as (p' & -> & B2 & B3 & B4); try lia.
      cbn [bind]. eexists; split; [reflexivity|].
      apply (set_splice_ok m _ i c k 0 1 e HI Hi Hc K1); cbn [cp cj cx crow ccol];
        [lia|lia|lia|reflexivity|reflexivity|exact B2| | |apply (lenN_spl k 0 [c]); lia|apply (lenN_spl k 0 [e]); lia
        | | |exact Klo| |lia|lia|].
      * intros t Ht. apply B3. lia.
      * intros t T1 T2. unfold pN; cbn [cp]. rewrite B4 by lia. fold (pN m t).
        specialize (Hp t). rewrite uadd_small; lia.
      * intros t Ht. split; apply nthN_spl_lo; lia.
      * intros t Ht. split; apply (nthN_spl_hi k 0 [_]); lia.
      * intros t T1 T2. apply Hgt; lia.
      * intros _. split; apply nthN_spl_at; lia.
Qed.

Lemma history_gen : zero_test_sound Ops ->
  forall (ops : list (hop (E:=E))) (m : mat) (D : N -> N -> E),
    Inv m -> (forall i c, i < crow m -> entry m i c = D i c) ->
    Forall (hop_in_range (crow m) (ccol m)) ops ->
    hist_ok Ops (crow m) (ccol m) D ops (hrun Ops m ops).
Proof.
  intros Hz. induction ops as [|o ops IH]; intros m D HI HD Hr.
  - constructor.
  - inversion Hr as [|? ? Ho Hr']; subst.
    destruct o as [i c e|i c]; cbn [hop_in_range] in Ho; destruct Ho as (Hi & Hc); cbn [hrun hstep].
    + destruct (set_spec m i c e Hz HI Hi Hc) as (m' & Hset & I' & R' & C' & En).
      rewrite Hset. cbn [bind].
      assert (En' : forall i' c', i' < crow m -> entry m' i' c' = upd D i c e i' c').
      { intros i' c' Hi'. rewrite En by assumption. unfold upd.
        destruct ((i' =? i) && (c' =? c)); [reflexivity|]. apply HD; assumption. }
      apply hok_set; try assumption.
      specialize (IH m' (upd D i c e) I'). rewrite R', C' in IH. apply IH; assumption.
    + rewrite (get_spec Ops m i c HI Hi). cbn [bind].
      rewrite (HD i c Hi).
      apply hok_get. apply IH; assumption.
Qed.

Theorem history_spec : zero_test_sound Ops ->
  forall (ops : list (hop (E:=E))) (m : mat),
    Inv m -> Forall (hop_in_range (crow m) (ccol m)) ops ->
    hist_ok Ops (crow m) (ccol m) (entry m) ops (hrun Ops m ops).
Proof.
  intros Hz ops m HI Hr. apply history_gen; auto.
Qed.

(* the empty matrix CSRMatrix(row, col) is a valid start of a history *)
Lemma mk_zero_Inv (row col : N) : row < 2 ^ 31 -> col < 2 ^ 31 -> row * col < 2 ^ 31 ->
  Inv (mk_zero row col) /\ forall i c, entry (mk_zero row col) i c = ezero Ops.
Proof.
  intros Hr Hc Hrc. unfold mk_zero. rewrite uadd_small by lia.
  assert (P : forall t, pN (Build_csr (repeat 0 (N.to_nat (row + 1))) [] ([] : list E) row col) t = 0).
  { intros t. unfold pN; cbn [cp]. destruct (N.ltb_spec t (N.of_nat (N.to_nat (row + 1)))).
    - apply nthN_repeat. assumption.
    - apply nthN_overflow. rewrite lenN_repeat. assumption. }
  split.
  - split; [split|split].
    + unfold wf. rewrite !P. cbn [crow cj cx cp]. rewrite lenN_repeat.
      split; [lia|]. split; [reflexivity|]. split; [intros; rewrite !P; lia|]. split; reflexivity.
    + intros i Hi a b A1 A2 A3. rewrite !P in *. lia.
    + intros k Hk. cbn [cj] in Hk. unfold lenN in Hk; cbn in Hk. lia.
    + unfold dims_ok; cbn [crow ccol]. lia.
  - intros i c. apply entry_miss. intros t T1 T2. rewrite !P in *. lia.
Qed.

(* every history that starts from the empty matrix CSRMatrix(row, col) *)
Theorem history_from_zero : zero_test_sound Ops ->
  forall (row col : N) (ops : list (hop (E:=E))),
    row < 2 ^ 31 -> col < 2 ^ 31 -> row * col < 2 ^ 31 ->
    Forall (hop_in_range row col) ops ->
    hist_ok Ops row col (fun _ _ => ezero Ops) ops (hrun Ops (mk_zero row col) ops).
Proof.
  intros Hz row col ops Hr Hc Hrc Hops.
  destruct (mk_zero_Inv row col Hr Hc Hrc) as (HI & He).
  exact (history_gen Hz ops (mk_zero row col) (fun _ _ => ezero Ops) HI (fun i c _ => He i c) Hops).
Qed.

End SetProofs.
