(* C25 -- the rows of a CSR triple read as lists of (column, value) pairs: segments of the arrays,
   ordered rows, lookup, the part of a dense row selected by a test; row pointers of a well-formed
   matrix and entries by position; the invariant from the rows; a matrix that differs from another by
   a few stored positions inside one row; arrays built by appending row after row. *)
From SE Require Export C25.CsrBase.
Local Open Scope N_scope.
Local Open Scope res_scope.

Lemma map_Nseq_shift {X} (f f' : N -> X) : forall n a a',
  (forall s, s < N.of_nat n -> f' (a' + s) = f (a + s)) -> map f' (Nseq a' n) = map f (Nseq a n).
Proof.
  induction n; intros a a' H; [reflexivity|]. cbn [Nseq map]. f_equal.
  - specialize (H 0 ltac:(lia)). rewrite !N.add_0_r in H. exact H.
  - apply IHn. intros s Hs. specialize (H (1 + s) ltac:(lia)). rewrite !N.add_assoc in H. exact H.
Qed.

Section Rows.
Context {E : Type}.
Variable Ops : eops E.
Notation mat := (csr E).
Notation entry := (entry Ops).
Notation row_of := (row_of Ops).
Notation lookup := (lookup Ops).
Notation e0 := (ezero Ops).
Notation Inv := (Inv (E:=E)).

(* the (column, value) pairs stored at positions a .. b-1 *)
Definition segN (j : list N) (x : list E) (a b : N) : list (N * E) :=
  map (fun k => (nthN j k 0, nthN x k e0)) (Nseq a (N.to_nat (b - a))).

Lemma row_of_seg (m : mat) i : row_of m i = segN (cj m) (cx m) (pN m i) (pN m (i + 1)).
Proof. reflexivity. Qed.

Lemma segN_nil j x a b : b <= a -> segN j x a b = [].
Proof. intros; unfold segN. replace (N.to_nat (b - a)) with 0%nat by lia. reflexivity. Qed.

Lemma segN_cons j x a b : a < b -> segN j x a b = (nthN j a 0, nthN x a e0) :: segN j x (a + 1) b.
Proof.
  intros; unfold segN. replace (N.to_nat (b - a)) with (S (N.to_nat (b - (a + 1)))) by lia.
  reflexivity.
Qed.

Lemma segN_app j x a b c : a <= b -> b <= c -> segN j x a c = segN j x a b ++ segN j x b c.
Proof.
  intros; unfold segN. replace (N.to_nat (c - a)) with (N.to_nat (b - a) + N.to_nat (c - b))%nat by lia.
  rewrite Nseq_app, map_app. do 3 f_equal. lia.
Qed.

Lemma segN_snoc j x a b : a <= b -> segN j x a (b + 1) = segN j x a b ++ [(nthN j b 0, nthN x b e0)].
Proof.
  intros. rewrite (segN_app j x a b (b + 1)) by lia. f_equal.
  rewrite segN_cons by lia. rewrite segN_nil by lia. reflexivity.
Qed.

Lemma segN_length j x a b : lenN (segN j x a b) = b - a.
Proof. unfold segN, lenN. rewrite map_length, Nseq_length. lia. Qed.

Lemma in_segN e j x a b :
  In e (segN j x a b) <-> exists k, a <= k /\ k < b /\ e = (nthN j k 0, nthN x k e0).
Proof.
  unfold segN. rewrite in_map_iff. split.
  - intros (k & <- & Hk). apply in_Nseq in Hk. exists k. repeat split; lia.
  - intros (k & H1 & H2 & ->). exists k. split; [reflexivity|]. apply in_Nseq. lia.
Qed.

(* equal contents up to a shift of the positions *)
Lemma segN_eq j x j' x' a b a' b' : b' - a' = b - a ->
  (forall s, s < b - a -> nthN j' (a' + s) 0 = nthN j (a + s) 0 /\ nthN x' (a' + s) e0 = nthN x (a + s) e0) ->
  segN j' x' a' b' = segN j x a b.
Proof.
  intros Hl H. unfold segN. rewrite Hl. apply map_Nseq_shift.
  intros s Hs. destruct (H s) as (-> & ->); [lia|reflexivity].
Qed.

Lemma segN_ext j x j' x' a b :
  (forall k, a <= k -> k < b -> nthN j' k 0 = nthN j k 0 /\ nthN x' k e0 = nthN x k e0) ->
  segN j' x' a b = segN j x a b.
Proof. intros H. apply segN_eq; [reflexivity|]. intros s Hs. apply H; lia. Qed.

(* the segment written by appending r at the end *)
Lemma segN_appended (r : list (N * E)) js xs : lenN xs = lenN js ->
  segN (js ++ map fst r) (xs ++ map snd r) (lenN js) (lenN js + lenN r) = r.
Proof.
  intros Hl. unfold segN. replace (N.to_nat (lenN js + lenN r - lenN js)) with (length r) by (unfold lenN; lia).
  revert js xs Hl. induction r as [|e r IH]; intros js xs Hl; [reflexivity|].
  cbn [length Nseq map]. f_equal.
  - rewrite nthN_app2 by lia. rewrite <- Hl at 2. rewrite nthN_app2 by lia.
    rewrite Hl, N.sub_diag. destruct e; reflexivity.
  - specialize (IH (js ++ [fst e]) (xs ++ [snd e])).
    rewrite <- !app_assoc, (lenN_app js) in IH. apply IH. rewrite !lenN_app. f_equal. exact Hl.
Qed.

Fixpoint srt (R : N -> N -> Prop) (l : list (N * E)) : Prop :=
  match l with
  | [] => True
  | a :: r => (forall b, In b r -> R (fst a) (fst b)) /\ srt R r
  end.

Lemma srt_app R l1 l2 :
  srt R (l1 ++ l2) <-> srt R l1 /\ srt R l2 /\ forall a b, In a l1 -> In b l2 -> R (fst a) (fst b).
Proof.
  induction l1 as [|e l1 IH]; cbn [app srt].
  - split; [intros H; repeat split; [exact H|intros ? ? []]|intros (_ & H & _); exact H].
  - rewrite IH. split.
    + intros (H1 & H2 & H3 & H4). split; [split; [|exact H2]|split; [exact H3|]].
      * intros b Hb. apply H1, in_or_app. left; exact Hb.
      * intros a b [<-|Ha] Hb; [apply H1, in_or_app; right; exact Hb|apply H4; assumption].
    + intros ((H1 & H2) & H3 & H4). split; [|split; [exact H2|split; [exact H3|]]].
      * intros b Hb. apply in_app_or in Hb as [Hb|Hb]; [apply H1; exact Hb|].
        apply H4; [left; reflexivity|exact Hb].
      * intros a b Ha Hb. apply H4; [right; exact Ha|exact Hb].
Qed.

Lemma srt_seg R j x a b :
  srt R (segN j x a b) <->
  forall s t, a <= s -> s < t -> t < b -> R (nthN j s 0) (nthN j t 0).
Proof.
  remember (N.to_nat (b - a)) as n eqn:Hn. revert a Hn. induction n; intros a Hn.
  - rewrite segN_nil by lia. cbn [srt]. split; [intros; lia|auto].
  - rewrite segN_cons by lia. cbn [srt fst]. rewrite (IHn (a + 1)) by lia. split.
    + intros (H1 & H2) s t Hs Hst Ht. destruct (N.eq_dec s a) as [->|].
      * apply (H1 (nthN j t 0, nthN x t e0)). apply in_segN. exists t. repeat split; lia.
      * apply H2; lia.
    + intros H. split.
      * intros e He. apply in_segN in He as (k & K1 & K2 & ->). cbn [fst]. apply H; lia.
      * intros s t ? ? ?. apply H; lia.
Qed.

Lemma lookup_cons c a l :
  lookup c (a :: l) = if fst a =? c then snd a else lookup c l.
Proof. unfold CsrSpec.lookup. cbn [find]. destruct (fst a =? c); reflexivity. Qed.

Lemma lookup_app c l1 l2 : (forall e, In e l1 -> fst e <> c) -> lookup c (l1 ++ l2) = lookup c l2.
Proof.
  induction l1 as [|a l1 IH]; intros H; [reflexivity|]. cbn [app]. rewrite lookup_cons.
  destruct (N.eqb_spec (fst a) c) as [Heq|_]; [destruct (H a (or_introl eq_refl) Heq)|].
  apply IH. intros e He. apply H. right; exact He.
Qed.

Lemma lookup_none c l : (forall e, In e l -> fst e <> c) -> lookup c l = e0.
Proof. intros H. rewrite <- (app_nil_r l). apply (lookup_app c l []), H. Qed.

(* a block of entries of column c in the middle of a list is seen by column c only *)
Lemma lookup_mid c l1 mid l2 c' : (forall e, In e mid -> fst e = c) -> c' <> c ->
  lookup c' (l1 ++ mid ++ l2) = lookup c' (l1 ++ l2).
Proof.
  intros Hm Hne. induction l1 as [|a l1 IH]; cbn [app].
  - apply lookup_app. intros e He. rewrite (Hm e He). congruence.
  - rewrite !lookup_cons, IH. reflexivity.
Qed.

Lemma lookup_at c l1 mid l2 :
  (forall e, In e l1 -> fst e <> c) -> (forall e, In e l2 -> fst e <> c) -> (forall e, In e mid -> fst e = c) ->
  lookup c (l1 ++ mid ++ l2) = lookup c mid.
Proof.
  intros H1 H2 Hm. rewrite lookup_app by exact H1. destruct mid as [|a mid]; [apply lookup_none, H2|].
  cbn [app]. rewrite !lookup_cons, (Hm a (or_introl eq_refl)), N.eqb_refl. reflexivity.
Qed.

(* the values rewritten entry by entry, the columns kept *)
Lemma lookup_map (g : N -> E -> E) c l : g c e0 = e0 ->
  lookup c (map (fun e => (fst e, g (fst e) (snd e))) l) = g c (lookup c l).
Proof.
  intros Hg. induction l as [|a l IH]; [symmetry; exact Hg|]. cbn [map]. rewrite !lookup_cons. cbn [fst snd].
  destruct (N.eqb_spec (fst a) c) as [->|]; [reflexivity|exact IH].
Qed.

(* strictly increasing columns, all in [lo, hi) *)
Definition row_in (lo hi : N) (l : list (N * E)) : Prop :=
  srt N.lt l /\ forall e, In e l -> lo <= fst e /\ fst e < hi.

Lemma row_in_nil lo hi : row_in lo hi [].
Proof. split; [exact I|intros ? []]. Qed.

Lemma row_in_cons lo hi e r :
  row_in lo hi (e :: r) <-> lo <= fst e /\ fst e < hi /\ row_in (fst e + 1) hi r.
Proof.
  unfold row_in. cbn [srt]. split.
  - intros ((H1 & Hs) & Hb). pose proof (Hb e (or_introl eq_refl)). split; [lia|]. split; [lia|].
    split; [exact Hs|]. intros e' He. specialize (H1 e' He). specialize (Hb e' (or_intror He)). lia.
  - intros (B1 & B2 & Hs & Hb). split; [split; [|exact Hs]|].
    + intros b Hb'. specialize (Hb b Hb'). lia.
    + intros e' [<-|He]; [lia|]. specialize (Hb e' He). lia.
Qed.

Lemma row_in_weaken lo lo' hi l : lo' <= lo -> row_in lo hi l -> row_in lo' hi l.
Proof. intros Hl (Hs & Hb). split; [exact Hs|]. intros e He. specialize (Hb e He). lia. Qed.

Lemma row_in_length l : forall lo hi, lo <= hi -> row_in lo hi l -> lo + lenN l <= hi.
Proof.
  induction l as [|e r IH]; intros lo hi Hlh Hb; [rewrite lenN_nil; lia|].
  apply row_in_cons in Hb as (B1 & B2 & B3). specialize (IH (fst e + 1) hi ltac:(lia) B3).
  rewrite lenN_cons. lia.
Qed.

(* the entries of column c in the middle of a row, between smaller and larger columns, replaced by others of column c *)
Lemma row_in_mid lo hi c l1 old new l2 :
  row_in lo hi (l1 ++ old ++ l2) -> lo <= c -> c < hi ->
  (forall e, In e l1 -> fst e < c) -> (forall e, In e l2 -> c < fst e) ->
  (forall e, In e new -> fst e = c) -> srt N.lt new ->
  row_in lo hi (l1 ++ new ++ l2).
Proof.
  intros (Hs & Hb) Hlo Hhi H1 H2 Hn Hsn.
  apply srt_app in Hs as (Hs1 & Hs2 & _). apply srt_app in Hs2 as (_ & Hs2 & _). split.
  - apply srt_app. split; [exact Hs1|]. split.
    + apply srt_app. split; [exact Hsn|]. split; [exact Hs2|].
      intros x y Hx Hy. rewrite (Hn x Hx). apply H2, Hy.
    + intros x y Hx Hy. specialize (H1 x Hx).
      apply in_app_or in Hy as [Hy|Hy]; [rewrite (Hn y Hy); exact H1|specialize (H2 y Hy); lia].
  - intros e He. apply in_app_or in He as [He|He]; [apply Hb, in_or_app; left; exact He|].
    apply in_app_or in He as [He|He]; [rewrite (Hn e He); lia|].
    apply Hb, in_or_app. right. apply in_or_app. right. exact He.
Qed.

Lemma lookup_below lo hi l c : row_in lo hi l -> c < lo -> lookup c l = e0.
Proof. intros (_ & Hb) Hc. apply lookup_none. intros e He. specialize (Hb e He). lia. Qed.

(* the columns of D selected by f, with the values of a dense row h *)
Definition sel (f : N -> bool) (D : list N) (h : N -> E) : list (N * E) :=
  filter (fun x => f (fst x)) (map (fun k => (k, h k)) D).

Lemma sel_cons f k D h : sel f (k :: D) h = if f k then (k, h k) :: sel f D h else sel f D h.
Proof. reflexivity. Qed.

Lemma sel_app f D1 D2 h : sel f (D1 ++ D2) h = sel f D1 h ++ sel f D2 h.
Proof. unfold sel. rewrite map_app. apply filter_app. Qed.

Lemma sel_ext f f' D h h' : (forall x, In x D -> f x = f' x /\ h x = h' x) -> sel f D h = sel f' D h'.
Proof.
  induction D as [|a D IH]; intros H; [reflexivity|]. rewrite !sel_cons.
  destruct (H a (or_introl eq_refl)) as (-> & ->). rewrite IH by (intros; apply H; right; assumption).
  reflexivity.
Qed.

Lemma sel_flat_map f D h : sel f D h = flat_map (fun k => if f k then [(k, h k)] else []) D.
Proof.
  induction D as [|k D IH]; [reflexivity|]. rewrite sel_cons. cbn [flat_map]. rewrite <- IH.
  destruct (f k); reflexivity.
Qed.

Lemma sel_fst f D h : map fst (sel f D h) = filter f D.
Proof.
  induction D as [|k D IH]; [reflexivity|]. rewrite sel_cons. cbn [filter].
  destruct (f k); cbn [map fst]; rewrite IH; reflexivity.
Qed.

Lemma sel_in f D h x : In x (sel f D h) -> In (fst x) D.
Proof.
  intros Hx. apply (in_map fst) in Hx. rewrite sel_fst in Hx. apply filter_In in Hx. tauto.
Qed.

Lemma sel_len f D h : lenN (sel f D h) <= lenN D.
Proof.
  induction D as [|k D IH]; [reflexivity|]. rewrite sel_cons.
  destruct (f k); rewrite !lenN_cons; lia.
Qed.

Lemma lookup_sel_notin f D h k : ~ In k D -> lookup k (sel f D h) = e0.
Proof. intros Hn. apply lookup_none. intros e He <-. apply Hn, (sel_in f D h e He). Qed.

(* a column left out must hold the zero *)
Lemma lookup_sel f D h k : (f k = false -> h k = e0) -> In k D -> lookup k (sel f D h) = h k.
Proof.
  intros Hf. induction D as [|a D IH]; intros Hin; [destruct Hin|]. rewrite sel_cons.
  destruct (N.eq_dec a k) as [->|Hne].
  - destruct (f k) eqn:Hk; [rewrite lookup_cons; cbn [fst snd]; rewrite N.eqb_refl; reflexivity|].
    destruct (in_dec N.eq_dec k D) as [Hd|Hd]; [apply IH, Hd|].
    rewrite (Hf eq_refl). apply lookup_sel_notin, Hd.
  - assert (Hd : In k D) by (destruct Hin; [contradiction|assumption]).
    destruct (f a); [|apply IH, Hd]. rewrite lookup_cons. cbn [fst].
    destruct (N.eqb_spec a k); [contradiction|apply IH, Hd].
Qed.

Lemma sel_Nseq_in f h : forall n a lo hi, lo <= a -> a + N.of_nat n <= hi -> row_in lo hi (sel f (Nseq a n) h).
Proof.
  induction n; intros a lo hi H1 H2; [apply row_in_nil|]. cbn [Nseq]. rewrite sel_cons.
  destruct (f a); [|apply IHn; lia].
  apply row_in_cons. cbn [fst]. split; [lia|]. split; [lia|]. apply IHn; lia.
Qed.

(* the stored part of a dense row: the columns whose value is not zero *)
Definition stored (D : list N) (h : N -> E) : list (N * E) := sel (fun k => negb (eis_zero Ops (h k))) D h.

Lemma pN_mono (m : mat) : wf m -> forall b a, a <= b -> b <= crow m -> pN m a <= pN m b.
Proof. intros (_ & _ & Hm & _). exact (mono_le (cp m) (crow m) Hm). Qed.

Lemma pN_le_nnz (m : mat) : wf m -> forall a, a <= crow m -> pN m a <= lenN (cj m).
Proof.
  intros Hwf a Ha. pose proof Hwf as (_ & _ & _ & H4 & _). rewrite <- H4.
  apply pN_mono; [assumption|assumption|lia].
Qed.

(* a stored position belongs to exactly one row *)
Lemma row_unique (m : mat) i i' k : wf m -> i < crow m -> i' < crow m ->
  pN m i <= k -> k < pN m (i + 1) -> pN m i' <= k -> k < pN m (i' + 1) -> i' = i.
Proof.
  intros Hwf Hi Hi' K1 K2 K3 K4.
  destruct (N.lt_trichotomy i' i) as [Hlt|[Heq|Hgt]]; [|assumption|]; exfalso.
  - pose proof (pN_mono m Hwf i (i' + 1) ltac:(lia) ltac:(lia)). lia.
  - pose proof (pN_mono m Hwf i' (i + 1) ltac:(lia) ltac:(lia)). lia.
Qed.

Lemma getN_p (m : mat) a : wf m -> a <= crow m -> getN (cp m) a = Ok (pN m a).
Proof.
  intros (H1 & _) Ha. apply getN_ok. lia.
Qed.

Lemma row_sorted_srt (m : mat) i : row_sorted m i <-> srt N.lt (row_of m i).
Proof. rewrite row_of_seg, srt_seg. reflexivity. Qed.

Lemma entry_hit (m : mat) i c k :
  row_sorted m i -> pN m i <= k -> k < pN m (i + 1) -> nthN (cj m) k 0 = c ->
  entry m i c = nthN (cx m) k e0.
Proof.
  intros Hs H1 H2 H3. unfold CsrSpec.entry. rewrite row_of_seg, (segN_app _ _ _ k) by lia.
  rewrite lookup_app.
  - rewrite segN_cons, lookup_cons by lia. cbn [fst snd]. rewrite H3, N.eqb_refl. reflexivity.
  - intros e He. apply in_segN in He as (t & T1 & T2 & ->). cbn [fst]. specialize (Hs t k T1 T2 H2). lia.
Qed.

Lemma entry_miss (m : mat) i c :
  (forall t, pN m i <= t -> t < pN m (i + 1) -> nthN (cj m) t 0 <> c) -> entry m i c = e0.
Proof.
  intros H. apply lookup_none. intros e He. rewrite row_of_seg in He.
  apply in_segN in He as (t & T1 & T2 & ->). apply H; assumption.
Qed.

Lemma find_row (m : mat) k : wf m -> k < lenN (cj m) ->
  exists i, i < crow m /\ pN m i <= k /\ k < pN m (i + 1).
Proof.
  intros (W1 & W2 & W3 & W4 & W5) Hk.
  assert (H : forall b, b <= crow m -> k < pN m b -> exists i, i < b /\ pN m i <= k /\ k < pN m (i + 1)).
  { induction b using N.peano_ind; intros Hb Hlt.
    - lia.
    - replace (N.succ b) with (b + 1) in * by lia. destruct (N.lt_ge_cases k (pN m b)) as [Hl|Hg].
      + destruct IHb as (i & I1 & I2 & I3); [lia|assumption|]. exists i. repeat split; [lia|assumption|assumption].
      + exists b. repeat split; [lia|assumption|assumption]. }
  apply (H (crow m)); lia.
Qed.

Lemma rows_cols_ok (m : mat) : wf m ->
  (forall i e, i < crow m -> In e (row_of m i) -> fst e < ccol m) -> cols_ok m.
Proof.
  intros Hwf H k Hk. destruct (find_row m k Hwf Hk) as (i & I1 & I2 & I3).
  apply (H i (nthN (cj m) k 0, nthN (cx m) k e0) I1).
  rewrite row_of_seg. apply in_segN. exists k. repeat split; assumption.
Qed.

Lemma row_of_col_lt (m : mat) i e : wf m -> cols_ok m -> i < crow m ->
  In e (row_of m i) -> fst e < ccol m.
Proof.
  intros Hwf Hc Hi He. rewrite row_of_seg in He. apply in_segN in He as (t & H1 & H2 & ->). cbn [fst].
  apply Hc. pose proof (pN_le_nnz m Hwf (i + 1) ltac:(lia)). lia.
Qed.

Lemma row_of_in (m : mat) i : wf m -> cols_ok m -> i < crow m -> row_sorted m i ->
  row_in 0 (ccol m) (row_of m i).
Proof.
  intros Hwf Hc Hi Hs. split; [apply row_sorted_srt, Hs|].
  intros e He. split; [lia|]. apply (row_of_col_lt m i); assumption.
Qed.

Lemma Inv_row_in (m : mat) i : Inv m -> i < crow m -> row_in 0 (ccol m) (row_of m i).
Proof. intros ((Hwf & Hs) & Hc & _) Hi. apply row_of_in; [assumption|assumption|assumption|apply Hs, Hi]. Qed.

Lemma Inv_of_rows (m : mat) : wf m -> dims_ok m ->
  (forall i, i < crow m -> row_in 0 (ccol m) (row_of m i)) -> Inv m.
Proof.
  intros Hwf Hd H. split; [split; [exact Hwf|]|split; [|exact Hd]].
  - intros i Hi. apply row_sorted_srt, H, Hi.
  - apply rows_cols_ok; [exact Hwf|]. intros i e Hi. apply H, Hi.
Qed.

(* a strictly increasing row with columns below col has at most col entries *)
Lemma row_length_bound (m : mat) i : wf m -> i < crow m -> row_sorted m i -> cols_ok m ->
  pN m (i + 1) - pN m i <= ccol m.
Proof.
  intros Hwf Hi Hs Hc. pose proof (row_in_length _ 0 (ccol m) ltac:(lia) (row_of_in m i Hwf Hc Hi Hs)) as H.
  rewrite row_of_seg, segN_length in H. lia.
Qed.

Lemma nnz_bound (m : mat) : canon m -> cols_ok m -> lenN (cj m) <= crow m * ccol m.
Proof.
  intros (Hwf & Hs) Hc.
  assert (H : forall i, i <= crow m -> pN m i <= i * ccol m).
  { induction i using N.peano_ind; intros Hi.
    - destruct Hwf as (_ & H0 & _). lia.
    - pose proof (row_length_bound m i Hwf ltac:(lia) (Hs i ltac:(lia)) Hc).
      replace (N.succ i) with (i + 1) in * by lia.
      pose proof (pN_mono m Hwf (i + 1) i ltac:(lia) ltac:(lia)). specialize (IHi ltac:(lia)). nia. }
  destruct Hwf as (_ & _ & _ & H4 & _). rewrite <- H4. apply H; lia.
Qed.

Lemma Inv_small (m : mat) : Inv m -> lenN (cj m) < 2 ^ 31 /\ crow m < 2 ^ 31.
Proof.
  intros (Hc & Hcols & (H1 & H2 & H3)). pose proof (nnz_bound m Hc Hcols). lia.
Qed.

Lemma Inv_facts (m : mat) : Inv m ->
  wf m /\ (forall i, i < crow m -> row_sorted m i) /\ cols_ok m /\ dims_ok m /\
  lenN (cj m) < 2 ^ 31 /\ crow m < 2 ^ 31 /\ lenN (cx m) = lenN (cj m) /\ lenN (cp m) = crow m + 1 /\
  pN m (crow m) = lenN (cj m).
Proof.
  intros HI. pose proof (Inv_small m HI) as (S1 & S2).
  destruct HI as ((Hwf & Hs) & Hc & Hd). pose proof Hwf as (W1 & W2 & W3 & W4 & W5).
  repeat split; try assumption; apply Hd.
Qed.

(* m' is m with the a stored positions from k on, inside row i, replaced by b new ones *)
Section Splice.
Variables (m m' : mat) (i k a b : N).
Hypothesis Hwf : wf m.
Hypothesis Hi : i < crow m.
Hypothesis K1 : pN m i <= k.
Hypothesis K2 : k + a <= pN m (i + 1).
Hypothesis Hrow : crow m' = crow m.
Hypothesis Lp : lenN (cp m') = lenN (cp m).
Hypothesis Plo : forall t, t <= i -> pN m' t = pN m t.
Hypothesis Phi : forall t, i < t -> t <= crow m -> pN m' t + a = pN m t + b.
Hypothesis Lj : lenN (cj m') + a = lenN (cj m) + b.
Hypothesis Lx : lenN (cx m') + a = lenN (cx m) + b.
Hypothesis Alo : forall t, t < k ->
  nthN (cj m') t 0 = nthN (cj m) t 0 /\ nthN (cx m') t e0 = nthN (cx m) t e0.
Hypothesis Ahi : forall t, k + a <= t ->
  nthN (cj m') (t + b - a) 0 = nthN (cj m) t 0 /\ nthN (cx m') (t + b - a) e0 = nthN (cx m) t e0.

Lemma splice_wf : wf m'.
Proof using Hwf Hi K1 K2 Hrow Lp Plo Phi Lj Lx.
  pose proof (pN_mono m Hwf) as Hm. destruct Hwf as (W1 & W2 & W3 & W4 & W5).
  unfold wf. rewrite Hrow. split; [lia|]. split; [rewrite Plo by lia; exact W2|].
  split; [|split; [|lia]].
  - intros t Ht. specialize (W3 t Ht). destruct (N.lt_trichotomy t i) as [Hlt|[->|Hgt]].
    + rewrite !Plo by lia. exact W3.
    + rewrite Plo by lia. specialize (Phi (i + 1)). lia.
    + pose proof (Phi t). specialize (Phi (t + 1)). specialize (Hm t (i + 1)). lia.
  - specialize (Phi (crow m)). lia.
Qed.

Lemma splice_other i' : i' < crow m -> i' <> i -> row_of m' i' = row_of m i'.
Proof using Hwf Hi K1 K2 Plo Phi Alo Ahi.
  clear Hrow Lp Lj Lx.
  intros Hi' Hne. rewrite !row_of_seg. destruct (N.lt_ge_cases i' i).
  - rewrite !Plo by lia. apply segN_ext. intros t T1 T2. apply Alo.
    pose proof (pN_mono m Hwf i (i' + 1)). lia.
  - pose proof (Phi i'). pose proof (Phi (i' + 1)). pose proof (pN_mono m Hwf i' (i + 1)).
    pose proof (pN_mono m Hwf (i' + 1) i').
    apply segN_eq; [lia|]. intros s Hs.
    replace (pN m' i' + s) with (pN m i' + s + b - a) by lia. apply Ahi. lia.
Qed.

Lemma splice_row :
  row_of m' i = segN (cj m) (cx m) (pN m i) k ++ segN (cj m') (cx m') k (k + b)
                ++ segN (cj m) (cx m) (k + a) (pN m (i + 1)).
Proof using Hi K1 K2 Plo Phi Alo Ahi.
  clear Hrow Lp Lj Lx.
  rewrite row_of_seg, Plo by lia. pose proof (Phi (i + 1)).
  rewrite (segN_app _ _ (pN m i) k) by lia. rewrite (segN_app _ _ k (k + b)) by lia.
  f_equal; [apply segN_ext; intros; apply Alo; lia|]. f_equal.
  apply segN_eq; [lia|]. intros s Hs.
  replace (k + b + s) with (k + a + s + b - a) by lia. apply Ahi. lia.
Qed.

End Splice.

(* arrays built by appending the rows [rows 0], [rows 1], ... one after another *)
Section Built.
Variable rows : N -> list (N * E).

Definition built (n : N) (p oj : list N) (ox : list E) : Prop :=
  lenN ox = lenN oj /\ nthN p 0 0 = 0 /\ nthN p n 0 = lenN oj /\
  forall i, i < n -> nthN p i 0 <= nthN p (i + 1) 0 /\ nthN p (i + 1) 0 <= lenN oj /\
    segN oj ox (nthN p i 0) (nthN p (i + 1) 0) = rows i.

Lemma built_0 p : nthN p 0 0 = 0 -> built 0 p [] [].
Proof. intros H. split; [reflexivity|]. split; [exact H|]. split; [exact H|]. intros; lia. Qed.

(* p' is p with entry n + 1 set (or pushed) to the new end *)
Lemma built_step n p oj ox p' :
  built n p oj ox ->
  (forall t, t <= n -> nthN p' t 0 = nthN p t 0) -> nthN p' (n + 1) 0 = lenN oj + lenN (rows n) ->
  built (n + 1) p' (oj ++ map fst (rows n)) (ox ++ map snd (rows n)).
Proof.
  intros (B1 & B2 & B3 & B4) Hp Hn. unfold built. rewrite !lenN_app, !lenN_map.
  split; [lia|]. split; [rewrite Hp by lia; exact B2|]. split; [exact Hn|].
  intros i Hi. destruct (N.eq_dec i n) as [->|Hne].
  - rewrite Hn, Hp, B3 by lia. split; [lia|]. split; [lia|]. apply segN_appended, B1.
  - destruct (B4 i ltac:(lia)) as (Q1 & Q2 & Q3). rewrite !Hp by lia.
    split; [exact Q1|]. split; [lia|]. rewrite <- Q3. apply segN_ext. intros k K1 K2.
    rewrite !nthN_app1 by lia. split; reflexivity.
Qed.

Lemma built_Inv n col p oj ox : built n p oj ox -> lenN p = n + 1 ->
  n < 2 ^ 31 -> col < 2 ^ 31 -> n * col < 2 ^ 31 ->
  (forall i, i < n -> row_in 0 col (rows i)) ->
  let R := Build_csr p oj ox n col in
  Inv R /\ forall i, i < n -> row_of R i = rows i.
Proof.
  intros (B1 & B2 & B3 & B4) Lp Hn Hc Hnc Hr R.
  assert (Hrow : forall i, i < n -> row_of R i = rows i) by (intros i Hi; apply (B4 i Hi)).
  split; [|exact Hrow]. apply Inv_of_rows.
  - unfold wf, pN, R. cbn [cp cj cx crow]. repeat split; try assumption. intros i Hi. apply (B4 i Hi).
  - unfold dims_ok, R. cbn [crow ccol]. auto.
  - intros i Hi. cbn [crow ccol R] in *. rewrite Hrow by exact Hi. apply Hr, Hi.
Qed.

End Built.

End Rows.
