(* C25 obligation: CSRMatrix::is_canonical (sizes, p_[0] = 0, csr_has_canonical_format) always answers on arrays of bounded size and decides exactly the canonical-format predicate. *)
From SE Require Import C25.CsrCanon.
Local Open Scope N_scope.
Theorem C25_is_canonical_spec :
  forall (E : Type) (m : csr E),
    crow m < 2 ^ 31 -> lenN (cj m) < 2 ^ 31 ->
    exists r : bool, is_canonical m = Ok r /\ (r = true <-> canon m).
Proof. exact @is_canonical_spec. Qed.
Print Assumptions C25_is_canonical_spec.
