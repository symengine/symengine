(* C25 obligation: CSRMatrix::get returns the dense entry of every canonical matrix of bounded size (binary search never leaves the row, no wrap, enough fuel). *)
From SE Require Import C25.CsrProofs.
Local Open Scope N_scope.
Theorem C25_get_spec :
  forall (E : Type) (Ops : eops E) (m : csr E) (i c : N),
    Inv m -> i < crow m -> get Ops m i c = Ok (entry Ops m i c).
Proof. exact @get_spec. Qed.
Print Assumptions C25_get_spec.
