(* C25 -- from_coo, part 2: csr_sort_indices. *)
From SE Require Export C25.CsrFromCoo1.
Local Open Scope N_scope.
Local Open Scope res_scope.

Section FromCoo2.
Context {E : Type}.
Variable Ops : eops E.
Notation mat := (csr E).
Notation entry := (entry Ops).
Notation row_of := (row_of Ops).
Notation segN := (segN Ops).
Notation e0 := (ezero Ops).

Lemma ins_pair_perm (a : N * E) l : Permutation (ins_pair a l) (a :: l).
Proof.
  induction l as [|b r IH]; cbn [ins_pair]; [apply Permutation_refl|].
  destruct (fst b <=? fst a).
  - eapply perm_trans; [apply perm_skip; exact IH|]. apply perm_swap.
  - apply Permutation_refl.
Qed.

Lemma ins_pair_srt (a : N * E) l : srt N.le l -> srt N.le (ins_pair a l).
Proof.
  induction l as [|b r IH]; intros Hs; cbn [ins_pair].
  - cbn [srt]. split; [intros ? []|exact I].
  - cbn [srt] in Hs. destruct Hs as (H1 & H2).
    destruct (N.leb_spec (fst b) (fst a)) as [Hle|Hgt].
    + cbn [srt]. split; [|apply IH; assumption].
      intros e He. apply (Permutation_in _ (ins_pair_perm a r)) in He.
      destruct He as [<-|He]; [assumption|apply H1; assumption].
    + cbn [srt]. split; [|split; assumption].
      intros e [<-|He]; [lia|]. specialize (H1 e He). lia.
Qed.

Lemma sort_pairs_perm (l : list (N * E)) : Permutation (sort_pairs l) l.
Proof.
  unfold sort_pairs.
  assert (H : forall (l acc : list (N * E)), Permutation (fold_left (fun acc a => ins_pair a acc) l acc) (acc ++ l)).
  { clear l. induction l as [|a l IH]; intros acc; cbn [fold_left].
    - rewrite app_nil_r. apply Permutation_refl.
    - eapply perm_trans; [apply IH|].
      eapply perm_trans; [apply Permutation_app_tail; apply ins_pair_perm|].
      cbn [app]. apply Permutation_middle. }
  apply (H l []).
Qed.

Lemma sort_pairs_srt (l : list (N * E)) : srt N.le (sort_pairs l).
Proof.
  unfold sort_pairs.
  assert (H : forall (l acc : list (N * E)), srt N.le acc -> srt N.le (fold_left (fun acc a => ins_pair a acc) l acc)).
  { clear l. induction l as [|a l IH]; intros acc Hs; cbn [fold_left]; [assumption|].
    apply IH. apply ins_pair_srt; assumption. }
  apply H. exact I.
Qed.

Lemma read_pairs_spec js (xs : list E) a b : a <= b -> b <= lenN js -> lenN xs = lenN js ->
  read_pairs js xs a b = Ok (segN js xs a b).
Proof.
  intros Hab Hb Hx. unfold read_pairs.
  match goal with |- context [for_range a b ?body ?s] =>
    destruct (for_range_acc1 (fun L acc => acc = rev L) (fun k => (nthN js k 0, nthN xs k e0)) body a b s [])
      as (s' & Hf & HP) end.
  - assumption.
  - reflexivity.
  - intros k L acc K1 K2 ->.
    rewrite (getN_ok js k 0) by lia. cbn [bind].
    rewrite (getN_ok xs k e0) by lia. cbn [bind].
    eexists. split; [reflexivity|]. rewrite rev_app_distr. reflexivity.
  - rewrite Hf. cbn [bind]. rewrite HP, rev_involutive. reflexivity.
Qed.

Lemma write_pairs_spec : forall (temp : list (N * E)) js xs a,
  a + lenN temp <= lenN js -> lenN xs = lenN js ->
  exists js' xs', write_pairs temp js xs a = Ok (js', xs') /\
    lenN js' = lenN js /\ lenN xs' = lenN xs /\
    segN js' xs' a (a + lenN temp) = temp /\
    (forall k, k < a \/ a + lenN temp <= k ->
               nthN js' k 0 = nthN js k 0 /\ nthN xs' k e0 = nthN xs k e0).
Proof.
  induction temp as [|[c v] r IH]; intros js xs a Ha Hx; cbn [write_pairs].
  - exists js, xs. split; [reflexivity|]. repeat split.
    rewrite segN_nil by (rewrite lenN_nil; lia). reflexivity.
  - rewrite lenN_cons in *.
    rewrite (setN_ok js a) by lia. cbn [bind].
    rewrite (setN_ok xs a) by lia. cbn [bind].
    set (js1 := updn (N.to_nat a) js c). set (xs1 := updn (N.to_nat a) xs v).
    assert (L1 : lenN js1 = lenN js) by (apply lenN_updn; lia).
    assert (L2 : lenN xs1 = lenN xs) by (apply lenN_updn; lia).
    destruct (IH js1 xs1 (a + 1)) as (js' & xs' & W1 & W2 & W3 & W4 & W5); try lia.
    exists js', xs'. split; [exact W1|]. split; [lia|]. split; [lia|]. split.
    + rewrite segN_cons by lia.
      replace (a + (lenN r + 1)) with (a + 1 + lenN r) by lia. rewrite W4.
      destruct (W5 a) as (E1 & E2); [lia|]. rewrite E1, E2.
      unfold js1, xs1. rewrite !nthN_updn by lia. rewrite N.eqb_refl. reflexivity.
    + intros k Hk. destruct (W5 k) as (E1 & E2); [lia|]. rewrite E1, E2.
      unfold js1, xs1. rewrite !nthN_updn by lia.
      destruct (N.eqb_spec k a); [lia|]. split; reflexivity.
Qed.

(* before row i: rows 0 .. i-1 are sorted permutations of what they were, the rest of the arrays is untouched *)
Definition si_inv (p j : list N) (x : list E) (i : N) (s : list N * list E) : Prop :=
  let '(js', xs') := s in
  lenN js' = lenN j /\ lenN xs' = lenN x /\
  (forall k, k < nthN p 0 0 \/ nthN p i 0 <= k ->
     nthN js' k 0 = nthN j k 0 /\ nthN xs' k e0 = nthN x k e0) /\
  (forall r, r < i ->
     Permutation (segN js' xs' (nthN p r 0) (nthN p (r + 1) 0)) (segN j x (nthN p r 0) (nthN p (r + 1) 0)) /\
     srt N.le (segN js' xs' (nthN p r 0) (nthN p (r + 1) 0))).

(* one row of csr_sort_indices, as the model writes it *)
Definition si_body (p : list N) (i : N) (st : list N * list E) : res (list N * list E) :=
  let '(js, xs) := st in
  do a <- getN p i;
  do b <- getN p (uadd i 1);
  do temp <- read_pairs js xs a b;
  write_pairs (sort_pairs temp) js xs a.

Lemma si_step (p j : list N) (x : list E) (row i : N) s :
  lenN p = row + 1 ->
  (forall i, i < row -> nthN p i 0 <= nthN p (i + 1) 0) ->
  nthN p row 0 <= lenN j -> lenN x = lenN j -> lenN j < 2 ^ 31 -> row < 2 ^ 31 -> i < row ->
  si_inv p j x i s -> exists s', si_body p i s = Ok s' /\ si_inv p j x (i + 1) s'.
Proof.
  intros Lp Hm Hpr Hx Hsmall Hrow Hi HP.
  pose proof (mono_le p row Hm) as Hmono.
  destruct s as [js' xs']. destruct HP as (L1 & L2 & Hsame & Hdone). unfold si_body.
  rewrite (getN_ok p i 0) by lia. cbn [bind].
  rewrite uadd_small by lia.
  rewrite (getN_ok p (i + 1) 0) by lia. cbn [bind].
  set (a := nthN p i 0) in *. set (b := nthN p (i + 1) 0) in *.
  assert (Hab : a <= b) by (apply Hm; lia).
  assert (Hb : b <= lenN j) by (specialize (Hmono row (i + 1)); lia).
  rewrite read_pairs_spec by lia. cbn [bind].
  assert (Hseg : segN js' xs' a b = segN j x a b).
  { apply segN_ext. intros k K1 K2. apply Hsame. lia. }
  rewrite Hseg.
  set (temp := segN j x a b).
  assert (Hlen : lenN (sort_pairs temp) = b - a).
  { unfold lenN. rewrite (Permutation_length (sort_pairs_perm temp)).
    fold (lenN temp). unfold temp. apply segN_length. }
  destruct (write_pairs_spec (sort_pairs temp) js' xs' a) as (js2 & xs2 & W1 & W2 & W3 & W4 & W5); try lia.
  rewrite W1. eexists. split; [reflexivity|]. unfold si_inv.
  replace (a + lenN (sort_pairs temp)) with b in * by lia.
  split; [lia|]. split; [lia|]. split.
  + intros k Hk. pose proof (Hmono i 0 ltac:(lia) ltac:(lia)) as H0. fold a in H0.
    destruct (W5 k) as (E1 & E2); [lia|]. rewrite E1, E2. apply Hsame. lia.
  + intros r Hr. destruct (N.eq_dec r i) as [->|Hne].
    * fold a b. rewrite W4. split; [apply sort_pairs_perm|apply sort_pairs_srt].
    * destruct (Hdone r ltac:(lia)) as (D1 & D2).
      pose proof (Hmono i (r + 1) ltac:(lia) ltac:(lia)) as Hle. fold a in Hle.
      assert (Hs2 : segN js2 xs2 (nthN p r 0) (nthN p (r + 1) 0) = segN js' xs' (nthN p r 0) (nthN p (r + 1) 0)).
      { apply segN_ext. intros k K1 K2. apply W5. lia. }
      rewrite Hs2. split; assumption.
Qed.

(* general form: p only has to be monotone with p[row] inside the arrays *)
Theorem sort_indices_gen (p j : list N) (x : list E) (row : N) :
  lenN p = row + 1 ->
  (forall i, i < row -> nthN p i 0 <= nthN p (i + 1) 0) ->
  nthN p row 0 <= lenN j -> lenN x = lenN j -> lenN j < 2 ^ 31 -> row < 2 ^ 31 ->
  exists j' x', sort_indices p j x row = Ok (j', x') /\
    lenN j' = lenN j /\ lenN x' = lenN x /\
    (forall i, i < row ->
       Permutation (segN j' x' (nthN p i 0) (nthN p (i + 1) 0)) (segN j x (nthN p i 0) (nthN p (i + 1) 0)) /\
       srt N.le (segN j' x' (nthN p i 0) (nthN p (i + 1) 0))) /\
    (forall k, k < nthN p 0 0 \/ nthN p row 0 <= k ->
       nthN j' k 0 = nthN j k 0 /\ nthN x' k e0 = nthN x k e0).
Proof.
  intros Lp Hm Hpr Hx Hsmall Hrow.
  unfold sort_indices.
  match goal with |- context [for_range 0 row ?body ?s] =>
    change (for_range 0 row body s) with (for_range 0 row (si_body p) s);
    destruct (for_range_inv (si_inv p j x) (si_body p) 0 row s) as (s' & Hf & HP) end.
  - lia.
  - repeat split; intros; lia.
  - intros i s _ Hi HP. apply (si_step p j x row); assumption.
  - rewrite Hf. destruct s' as [j' x']. destruct HP as (L1 & L2 & Hsame & Hdone).
    exists j', x'. split; [reflexivity|]. repeat split; try assumption.
    + apply Hdone; assumption.
    + apply Hdone; assumption.
    + apply Hsame; assumption.
    + apply Hsame; assumption.
Qed.

Theorem sort_indices_spec (m : mat) :
  wf m -> lenN (cj m) < 2 ^ 31 -> crow m < 2 ^ 31 ->
  exists j' x', sort_indices (cp m) (cj m) (cx m) (crow m) = Ok (j', x') /\
    let m' := Build_csr (cp m) j' x' (crow m) (ccol m) in
    lenN j' = lenN (cj m) /\ lenN x' = lenN (cx m) /\ wf m' /\
    (forall i, i < crow m -> Permutation (row_of m' i) (row_of m i) /\ row_nondecr m' i).
Proof.
  intros Hwf Hsmall Hrow. destruct Hwf as (W1 & W2 & W3 & W4 & W5).
  destruct (sort_indices_gen (cp m) (cj m) (cx m) (crow m)) as (j' & x' & H1 & H2 & H3 & H4 & H5);
    try assumption.
  - unfold pN in W4. lia.
  - exists j', x'. split; [exact H1|]. cbn zeta.
    split; [assumption|]. split; [assumption|]. split.
    + unfold wf, pN in *. cbn [cp cj cx crow]. repeat split; try assumption; lia.
    + intros i Hi. destruct (H4 i Hi) as (P1 & P2). split.
      * exact P1.
      * apply (proj2 (row_nondecr_srt Ops _ i)). exact P2.
Qed.

End FromCoo2.
