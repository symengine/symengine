(* C27 proofs, layer 3: the interval factory, Interval::contains and the Interval x Interval
   operations against the membership semantics.

   An interval is the intersection of two half-lines of positions: the positions [after] its start and
   those [before] its end, each endpoint open or closed.  The two kinds are mirror images; what holds of
   both is proved once, over the direction [d] ([true] for starts).  Intersection, union and complement of two
   intervals select among the four endpoints, so what they need is how two half-lines with ordered
   endpoints combine; the position of the point itself is looked at in those few facts only. *)
From Coq Require Import QArith.
From SE Require Import C27.SetSpec C27.SetOrder C27.SetNum C27.SetCont.

(* splits on the order of every two positions the goal compares; [pord] discards the cases that contradict
   the order hypotheses of the context, and a goal over booleans is left *)
Ltac cmp_cases :=
  repeat match goal with
         | |- context [pos_cmp ?x ?y] =>
             let H := fresh "Hc" in
             destruct (pos_cmp_spec x y) as [[-> H]|[[-> H]|[-> H]]];
             try (exfalso; pord)
         end.

(* the positions on the inner side of an endpoint x: above it for a start ([d = true]), below it for an end *)
Definition ray (d : bool) (x : pos) (open : bool) (y : pos) : bool :=
  match pos_cmp x y with Lt => d | Eq => negb open | Gt => negb d end.
Notation after := (ray true).
Notation before := (ray false).

Lemma in_interval_rays : forall s e lo ro p,
    in_interval s e lo ro p = after (npos s) lo (ppos p) && before (npos e) ro (ppos p).
Proof. intros. unfold in_interval. rewrite !cmp_np_pos. reflexivity. Qed.

Lemma in_interval_between : forall s e lo ro p, in_interval s e lo ro p = true ->
    npos s <=p ppos p /\ ppos p <=p npos e.
Proof.
  intros s e lo ro p H. rewrite in_interval_rays in H. unfold ray in H. apply andb_prop in H. destruct H as [A B]. split.
  - destruct (pos_cmp_spec (npos s) (ppos p)) as [[E C]|[[E C]|[E C]]]; rewrite E in A; try discriminate A; pord.
  - destruct (pos_cmp_spec (npos e) (ppos p)) as [[E C]|[[E C]|[E C]]]; rewrite E in B; try discriminate B; pord.
Qed.

Lemma in_finite_cons : forall a l p,
    in_finite (a :: l) p = (match pos_cmp (npos a) (ppos p) with Eq => true | _ => false end) || in_finite l p.
Proof. intros. unfold in_finite. simpl. rewrite cmp_np_pos. reflexivity. Qed.

Lemma nb_insert_nil : forall s, nb_insert s [] = [s].
Proof. reflexivity. Qed.

Lemma negb_ray : forall d x o y, negb (ray d x o y) = ray (negb d) x (negb o) y.
Proof. intros. unfold ray. destruct (pos_cmp x y), d; reflexivity. Qed.

(* a half-line sees a point through its position only *)
Lemma ray_pos_eq : forall d x o y y', y =p y' -> ray d x o y = ray d x o y'.
Proof. intros d x o y y' H. unfold ray. cmp_cases; reflexivity. Qed.

(* of two half-lines on the same side, the one with the inner endpoint is the intersection, the other
   the union; [dlt d x x'] makes x the outer endpoint *)
Lemma ray_nested : forall d x x' o o' y, dlt d x x' ->
    ray d x o y && ray d x' o' y = ray d x' o' y /\ ray d x o y || ray d x' o' y = ray d x o y.
Proof. intros [] x x' o o' y H; unfold ray, dlt in *; cmp_cases; destruct o, o'; split; reflexivity. Qed.
(* with the same endpoint the flags combine *)
Lemma ray_same : forall d x x' o o' y, x =p x' ->
    ray d x (o || o') y = ray d x o y && ray d x' o' y /\ ray d x (o && o') y = ray d x o y || ray d x' o' y.
Proof. intros d x x' o o' y H. unfold ray. cmp_cases; destruct d, o, o'; split; reflexivity. Qed.

(* a start and an end: together they cover every position, or have nothing in common, or one point *)
Lemma rays_cover : forall x x' o o' y, x <p x' \/ (x =p x' /\ o' = false) ->
    after x o y || before x' o' y = true.
Proof. intros x x' o o' y [H|[H ->]]; unfold ray; cmp_cases; destruct o; reflexivity. Qed.
Lemma rays_empty : forall x x' o o' y, x' <p x -> after x o y && before x' o' y = false.
Proof. intros x x' o o' y H. unfold ray. cmp_cases; destruct o; reflexivity. Qed.
Lemma rays_point : forall x x' o o' y, x =p x' ->
    after x o y && before x' o' y = match pos_cmp x y with Eq => negb (o || o') | _ => false end.
Proof. intros x x' o o' y H. unfold ray. cmp_cases; destruct o, o'; reflexivity. Qed.

(* taking the position a out: opens an endpoint at a, changes nothing on the far side of an endpoint,
   cuts an interval around a in two *)
Definition pos_at (a y : pos) : bool := match pos_cmp a y with Eq => true | _ => false end.
Lemma ray_open : forall d a x o y, a =p x -> ray d x true y = ray d x o y && negb (pos_at a y).
Proof. intros d a x o y H. unfold ray, pos_at. cmp_cases; destruct d, o; reflexivity. Qed.
Lemma after_clear : forall a x o y, a <p x -> after x o y && negb (pos_at a y) = after x o y.
Proof. intros a x o y H. unfold ray, pos_at. cmp_cases; destruct o; reflexivity. Qed.
Lemma interval_cut : forall a x x' o o' y, x <=p a -> a <p x' ->
    after x o y && before x' o' y && negb (pos_at a y)
    = after x o y && before a true y || after a true y && before x' o' y.
Proof. intros a x x' o o' y H H'. unfold ray, pos_at. cmp_cases; destruct o, o'; reflexivity. Qed.

(* closing an endpoint of an interval adds its position *)
Lemma interval_close_start : forall a x x' o' y, a =p x -> x <p x' ->
    after x false y && before x' o' y = pos_at a y || after x true y && before x' o' y.
Proof. intros a x x' o' y H H'. unfold ray, pos_at. cmp_cases; reflexivity. Qed.
Lemma interval_close_end : forall a x x' o y, a =p x' -> x <p x' ->
    after x o y && before x' false y = pos_at a y || after x o y && before x' true y.
Proof. intros a x x' o y H H'. unfold ray, pos_at. cmp_cases; destruct o; reflexivity. Qed.

(* a number is never at the position of a one-sided germ *)
Lemma npos_not_near : forall a q o, num_ok a = true -> (o = 1 \/ o = -1)%Z -> ~ npos a =p PFin q o.
Proof.
  intros a q o Ha Ho H. apply PosO.eq_iff in H. destr_num a; simpl in H.
  - destruct (inject_Z z ?= q)%Q; try discriminate. destruct Ho; subst; discriminate.
  - destruct (n # d ?= q)%Q; try discriminate. destruct Ho; subst; discriminate.
  - apply num_ok_inf in Ha. destruct Ha; subst; discriminate.
Qed.
(* a one-sided germ of q sees an endpoint as q does, the endpoint closed on the germ's side and open on the
   other: nothing lies strictly between a rational and its germs *)
Lemma ray_near : forall d a q o, num_ok a = true ->
    ray d (npos a) o (PFin q 1) = ray d (npos a) (negb d) (PFin q 0) /\
    ray d (npos a) o (PFin q (-1)) = ray d (npos a) d (PFin q 0).
Proof.
  intros d a q o Ha. unfold ray.
  destr_num a; simpl;
    [destruct (inject_Z z ?= q)%Q|destruct (n # d0 ?= q)%Q|apply num_ok_inf in Ha; destruct Ha; subst];
    destruct d; split; reflexivity.
Qed.

(* what the factory returns, by the order of the endpoints *)
Lemma interval_cases : forall s e lo ro, num_ok s = true -> num_ok e = true ->
    (npos s <p npos e /\ interval s e lo ro = SInterval s e lo ro) \/
    (npos s =p npos e /\ interval s e lo ro = if negb (lo || ro) then finiteset (nb_insert s []) else SEmpty) \/
    (npos e <p npos s /\ interval s e lo ro = SEmpty).
Proof.
  intros s e lo ro Hs He. unfold interval, ivl_canonical.
  destruct (num_eqb_spec e s He Hs) as [E|E].
  - destruct (num_eqb_spec s e Hs He) as [E'|N]; [|exfalso; pord]. right. left. split; [exact E'|reflexivity].
  - destruct (nmin_r_spec s e Hs He) as [L|L]; [|left; split; [pord|reflexivity]].
    destruct (num_eqb_spec s e Hs He) as [E'|_]; [exfalso; pord|]. right. right. split; [pord|reflexivity].
Qed.

Lemma interval_In : forall s e lo ro p, num_ok s = true -> num_ok e = true ->
    In_set p (interval s e lo ro) = in_interval s e lo ro p.
Proof.
  intros s e lo ro p Hs He. rewrite in_interval_rays.
  destruct (interval_cases s e lo ro Hs He) as [[L ->]|[[E ->]|[L ->]]].
  - apply in_interval_rays.
  - (* equal endpoints: the point if both are closed *)
    rewrite (rays_point _ _ lo ro (ppos p) E).
    destruct lo, ro; simpl; rewrite ?cmp_np_pos; destruct (pos_cmp (npos s) (ppos p)); reflexivity.
  - rewrite rays_empty by exact L. reflexivity.
Qed.

Lemma interval_wf : forall s e lo ro, num_ok s = true -> num_ok e = true ->
    wf_set (interval s e lo ro) = true.
Proof.
  intros s e lo ro Hs He. destruct (interval_cases s e lo ro Hs He) as [[L ->]|[[E ->]|[L ->]]].
  - simpl. rewrite Hs, He. apply x_lt_pos; assumption.
  - destruct (negb (lo || ro)); simpl; rewrite ?Hs; reflexivity.
  - reflexivity.
Qed.

(* the half-lines of an interval that has a point leave no position out *)
Lemma interval_cover : forall s e lo ro y, num_ok s = true -> num_ok e = true ->
    is_empty (interval s e lo ro) = false -> after (npos s) lo y || before (npos e) ro y = true.
Proof.
  intros s e lo ro y Hs He. destruct (interval_cases s e lo ro Hs He) as [[L ->]|[[E ->]|[L ->]]].
  - intros _. apply rays_cover. left. exact L.
  - destruct lo, ro; simpl; try discriminate. intros _. apply rays_cover. right. split; [exact E|reflexivity].
  - discriminate.
Qed.

(* wf intervals: start strictly below end *)
Lemma wf_interval_inv : forall s e lo ro, wf_set (SInterval s e lo ro) = true ->
    num_ok s = true /\ num_ok e = true /\ npos s <p npos e.
Proof.
  intros s e lo ro H. simpl in H. apply andb_prop in H. destruct H as [H H3].
  apply andb_prop in H. destruct H as [H1 H2]. repeat split; auto. apply x_lt_pos; auto.
Qed.

(* Interval::contains *)
Lemma npos_finite_ppos : forall a q, qval a = Some q -> npos a = ppos (PAt q).
Proof. intros a q H. destruct a; simpl in *; try discriminate; inversion H; reflexivity. Qed.

(* a point at the position of the number *)
Lemma ivl_contains_at : forall s e lo ro a p,
    wf_set (SInterval s e lo ro) = true -> num_ok a = true -> npos a =p ppos p ->
    ivl_contains s e lo ro a = in_interval s e lo ro p.
Proof.
  intros s e lo ro a p Hwf Ha Hp.
  apply wf_interval_inv in Hwf. destruct Hwf as [Hs [He Hse]].
  rewrite in_interval_rays. unfold ray, ivl_contains.
  destruct (num_eqb_spec s a Hs Ha) as [E1|E1];
    [|destruct (num_eqb_spec e a He Ha) as [E2|E2];
      [|destruct (nmin_l_spec e a He Ha) as [E3|E3];
        [|destruct (nmax_l_spec s a Hs Ha) as [E4|E4]]]];
    cbn [orb]; cmp_cases; destruct lo, ro; reflexivity.
Qed.

Lemma ivl_contains_In : forall s e lo ro a q,
    wf_set (SInterval s e lo ro) = true -> num_ok a = true -> qval a = Some q ->
    ivl_contains s e lo ro a = in_interval s e lo ro (PAt q).
Proof.
  intros s e lo ro a q Hwf Ha Hq. apply ivl_contains_at; [assumption ..|].
  rewrite (npos_finite_ppos a q Hq). pord.
Qed.

(* the endpoints the operations select among those of the operands, with their open flags, as the code
   computes them: for the intersection the inner one of two starts (the larger) or of two ends (the smaller;
   both found with min, by opposite branches), for the union the outer one (min of the starts, max of the ends) *)
Definition inner_end (d : bool) (a : number) (oa : bool) (b : number) (ob : bool) : number * bool :=
  if negb (num_eqb a b) then
    (if num_eqb a (nmin a b) then (if d then (b, ob) else (a, oa)) else (if d then (a, oa) else (b, ob)))
  else (a, oa || ob).
Definition outer_end (d : bool) (a : number) (oa : bool) (b : number) (ob : bool) : number * bool :=
  let c := if num_eqb ((if d then nmin else nmax) a b) a then a else b in
  (c, (negb (num_eqb a c) || oa) && (negb (num_eqb b c) || ob)).

Lemma inner_end_ray : forall d a oa b ob, num_ok a = true -> num_ok b = true ->
    let r := inner_end d a oa b ob in
    num_ok (fst r) = true /\
    forall y, ray d (npos (fst r)) (snd r) y = ray d (npos a) oa y && ray d (npos b) ob y.
Proof.
  intros d a oa b ob Ha Hb. unfold inner_end.
  destruct (num_eqb_spec a b Ha Hb) as [E|E]; cbn [negb].
  - split; [exact Ha|]. intro y. apply ray_same. exact E.
  - destruct (nmin_spec a b Ha Hb) as [[L ->]|[L ->]].
    + rewrite (num_eqb_refl' a Ha).
      destruct d; (split; [assumption|]); intro y; [|rewrite andb_comm]; symmetry; apply ray_nested; unfold dlt; pord.
    + destruct (num_eqb_spec a b Ha Hb) as [E'|_]; [contradiction|].
      destruct d; (split; [assumption|]); intro y; [rewrite andb_comm|]; symmetry; apply ray_nested; exact L.
Qed.

Lemma outer_test : forall d a b, num_ok a = true -> num_ok b = true ->
    reflect (dle d (npos a) (npos b)) (num_eqb ((if d then nmin else nmax) a b) a).
Proof. intros [] a b; [exact (nmin_l_spec a b)|exact (nmax_l_spec a b)]. Qed.

Lemma outer_end_ray : forall d a oa b ob, num_ok a = true -> num_ok b = true ->
    let r := outer_end d a oa b ob in
    num_ok (fst r) = true /\
    forall y, ray d (npos (fst r)) (snd r) y = ray d (npos a) oa y || ray d (npos b) ob y.
Proof.
  intros d a oa b ob Ha Hb. unfold outer_end. cbn [fst snd].
  destruct (outer_test d a b Ha Hb) as [L|L].
  - rewrite (num_eqb_refl' a Ha).
    split; [exact Ha|]. intro y. cbn [negb orb].
    destruct (num_eqb_spec b a Hb Ha) as [E|E]; cbn [negb orb].
    + apply ray_same. pord.
    + rewrite andb_true_r. symmetry. apply ray_nested. destruct d; unfold dlt, dle in *; pord.
  - rewrite (num_eqb_refl' b Hb).
    destruct (num_eqb_spec a b Ha Hb) as [E|_]; [exfalso; destruct d; unfold dle in L; pord|].
    split; [exact Hb|]. intro y. cbn [negb orb andb]. rewrite orb_comm. symmetry. apply ray_nested.
    destruct d; unfold dlt, dle in *; pord.
Qed.

(* the memberships of p in the four half-lines of two intervals, by cases *)
Ltac four_rays s lo e ro os olo oe oro p :=
  destruct (after (npos s) lo (ppos p)), (after (npos os) olo (ppos p)),
    (before (npos e) ro (ppos p)), (before (npos oe) oro (ppos p)).

(* Interval::set_intersection(Interval) *)
Lemma ivl_inter_ivl_eq : forall s e lo ro os oe olo oro,
    ivl_inter_ivl s e lo ro os oe olo oro =
    if num_eqb s (nmin s oe) && num_eqb os (nmin e os) then
      interval (fst (inner_end true s lo os olo)) (fst (inner_end false e ro oe oro))
               (snd (inner_end true s lo os olo)) (snd (inner_end false e ro oe oro))
    else SEmpty.
Proof. reflexivity. Qed.

(* the test fails when one operand ends below the start of the other *)
Lemma ivl_inter_test : forall s e os oe,
    num_ok s = true -> num_ok e = true -> num_ok os = true -> num_ok oe = true ->
    num_eqb s (nmin s oe) && num_eqb os (nmin e os) = false ->
    npos oe <p npos s \/ npos e <p npos os.
Proof.
  intros s e os oe Hs He Hos Hoe H.
  destruct (nmin_spec s oe Hs Hoe) as [[L1 E1]|[L1 E1]]; [|left; exact L1].
  destruct (nmin_spec e os He Hos) as [[L2 E2]|[L2 E2]]; rewrite E1, E2 in H;
    rewrite (num_eqb_refl' s Hs) in H.
  - revert H. destruct (num_eqb_spec os e Hos He) as [_|N]; [discriminate|right; pord].
  - rewrite (num_eqb_refl' os Hos) in H. discriminate.
Qed.

Lemma ivl_inter_ivl_In : forall s e lo ro os oe olo oro p,
    wf_set (SInterval s e lo ro) = true -> wf_set (SInterval os oe olo oro) = true ->
    In_set p (ivl_inter_ivl s e lo ro os oe olo oro)
    = in_interval s e lo ro p && in_interval os oe olo oro p.
Proof.
  intros s e lo ro os oe olo oro p H1 H2.
  apply wf_interval_inv in H1. destruct H1 as [Hs [He Hse]].
  apply wf_interval_inv in H2. destruct H2 as [Hos [Hoe Hose]].
  rewrite ivl_inter_ivl_eq, !in_interval_rays.
  destruct (num_eqb s (nmin s oe) && num_eqb os (nmin e os)) eqn:T.
  - destruct (inner_end_ray true s lo os olo Hs Hos) as [Hst Ha].
    destruct (inner_end_ray false e ro oe oro He Hoe) as [Hen Hb].
    rewrite interval_In, in_interval_rays, Ha, Hb by assumption.
    four_rays s lo e ro os olo oe oro p; reflexivity.
  - destruct (ivl_inter_test s e os oe Hs He Hos Hoe T) as [L|L];
      [pose proof (rays_empty _ _ lo oro (ppos p) L) as K|pose proof (rays_empty _ _ olo ro (ppos p) L) as K];
      four_rays s lo e ro os olo oe oro p; try reflexivity; discriminate K.
Qed.

Lemma ivl_inter_ivl_wf : forall s e lo ro os oe olo oro,
    wf_set (SInterval s e lo ro) = true -> wf_set (SInterval os oe olo oro) = true ->
    wf_set (ivl_inter_ivl s e lo ro os oe olo oro) = true.
Proof.
  intros s e lo ro os oe olo oro H1 H2.
  apply wf_interval_inv in H1. destruct H1 as [Hs [He Hse]].
  apply wf_interval_inv in H2. destruct H2 as [Hos [Hoe Hose]].
  rewrite ivl_inter_ivl_eq.
  destruct (num_eqb s (nmin s oe) && num_eqb os (nmin e os)); [|reflexivity].
  apply interval_wf; apply inner_end_ray; assumption.
Qed.

(* Interval::set_union(Interval): a Union object when the operands are apart, or touch with an open end *)
Definition ivl_apart (s e : number) (ro : bool) (os oe : number) (oro : bool) : bool :=
  let start_start := nmax s os in
  let end_end := nmin e oe in
  let m := nmin start_start end_end in
  (num_eqb end_end start_start && num_eqb end_end m
   && ((num_eqb end_end e && ro) || (num_eqb end_end oe && oro)))
  || (num_eqb end_end m && negb (num_eqb end_end start_start)).

Lemma ivl_union_ivl_eq : forall s e lo ro os oe olo oro,
    ivl_union_ivl s e lo ro os oe olo oro =
    if ivl_apart s e ro os oe oro then mk_union2 (SInterval s e lo ro) (SInterval os oe olo oro)
    else ret (interval (fst (outer_end true s lo os olo)) (fst (outer_end false e ro oe oro))
                       (snd (outer_end true s lo os olo)) (snd (outer_end false e ro oe oro))).
Proof. reflexivity. Qed.

(* otherwise the start of each and the end of the other leave no position uncovered *)
Lemma not_apart : forall s e ro os oe oro,
    num_ok s = true -> num_ok e = true -> num_ok os = true -> num_ok oe = true ->
    npos s <p npos e -> npos os <p npos oe ->
    ivl_apart s e ro os oe oro = false ->
    (npos os <p npos e \/ (npos os =p npos e /\ ro = false)) /\
    (npos s <p npos oe \/ (npos s =p npos oe /\ oro = false)).
Proof.
  intros s e ro os oe oro Hs He Hos Hoe Hse Hose. unfold ivl_apart.
  destruct (npos_nmax s os Hs Hos) as [S1 [S2 _]]. destruct (npos_nmin e oe He Hoe) as [N1 [N2 _]].
  pose proof (nmax_ok s os Hs Hos) as Hss. pose proof (nmin_ok e oe He Hoe) as Hee.
  set (ss := nmax s os) in *. set (ee := nmin e oe) in *.
  destruct (nmin_spec ss ee Hss Hee) as [[L ->]|[L ->]].
  - destruct (num_eqb_spec ee ss Hee Hss) as [E|E]; cbn [andb orb negb]; intro C.
    + (* the larger start is the smaller end: that end is closed *)
      rewrite orb_false_r in C. apply orb_false_elim in C. destruct C as [C1 C2]. split.
      * destruct (PosO.lt_total (npos os) (npos e)) as [H|[H|H]]; [left; exact H| |exfalso; pord].
        right. split; [exact H|].
        destruct (num_eqb_spec ee e Hee He) as [_|N]; [exact C1|exfalso; apply N; pord].
      * destruct (PosO.lt_total (npos s) (npos oe)) as [H|[H|H]]; [left; exact H| |exfalso; pord].
        right. split; [exact H|].
        destruct (num_eqb_spec ee oe Hee Hoe) as [_|N]; [exact C2|exfalso; apply N; pord].
    + split; left; pord.
  - destruct (num_eqb_spec ee ss Hee Hss) as [E|E]; [exfalso; pord|].
    rewrite (num_eqb_refl' ee Hee). discriminate.
Qed.

Lemma ivl_union_ivl_ok : forall s e lo ro os oe olo oro r,
    wf_set (SInterval s e lo ro) = true -> wf_set (SInterval os oe olo oro) = true ->
    ivl_union_ivl s e lo ro os oe olo oro = (Ok r, []) ->
    wf_set r = true /\ forall p, In_set p r = in_interval s e lo ro p || in_interval os oe olo oro p.
Proof.
  intros s e lo ro os oe olo oro r H1 H2 H.
  pose proof H1 as W1. pose proof H2 as W2.
  apply wf_interval_inv in H1. destruct H1 as [Hs [He Hse]].
  apply wf_interval_inv in H2. destruct H2 as [Hos [Hoe Hose]].
  rewrite ivl_union_ivl_eq in H. destruct (ivl_apart s e ro os oe oro) eqn:C.
  - exact (mk_set2_ok true _ _ _ W1 W2 H).
  - apply ret_ok in H. subst r.
    destruct (outer_end_ray true s lo os olo Hs Hos) as [Hst Ha].
    destruct (outer_end_ray false e ro oe oro He Hoe) as [Hen Hb].
    split; [apply interval_wf; assumption|].
    intro p. rewrite interval_In, !in_interval_rays, Ha, Hb by assumption.
    (* a point after one start and before the other end is in one of the operands *)
    destruct (not_apart s e ro os oe oro Hs He Hos Hoe Hse Hose C) as [G1 G2].
    pose proof (rays_cover _ _ olo ro (ppos p) G1) as K1.
    pose proof (rays_cover _ _ lo oro (ppos p) G2) as K2.
    four_rays s lo e ro os olo oe oro p; try reflexivity; discriminate.
Qed.

(* Interval::set_complement(Interval), o \ this, when the operands have a common point *)
Lemma ivl_inter_cover : forall s e lo ro os oe olo oro y,
    num_ok s = true -> num_ok e = true -> num_ok os = true -> num_ok oe = true ->
    is_empty (ivl_inter_ivl s e lo ro os oe olo oro) = false ->
    after (npos s) lo y && after (npos os) olo y || before (npos e) ro y && before (npos oe) oro y = true.
Proof.
  intros s e lo ro os oe olo oro y Hs He Hos Hoe. rewrite ivl_inter_ivl_eq.
  destruct (num_eqb s (nmin s oe) && num_eqb os (nmin e os)); [|discriminate].
  destruct (inner_end_ray true s lo os olo Hs Hos) as [Hst Ha].
  destruct (inner_end_ray false e ro oe oro He Hoe) as [Hen Hb].
  intro P. apply (interval_cover _ _ _ _ y) in P; [|assumption ..]. rewrite Ha, Hb in P. exact P.
Qed.

(* the pieces of o below the start and above the end of this *)
Lemma ivl_compl_lower : forall s lo os olo p, num_ok s = true -> num_ok os = true ->
    existsb (In_set p) (if num_eqb (nmax s os) s then [interval os s olo (negb lo)] else [])
    = after (npos os) olo (ppos p) && negb (after (npos s) lo (ppos p)).
Proof.
  intros s lo os olo p Hs Hos. destruct (nmax_l_spec s os Hs Hos) as [L|L]; cbn [existsb].
  - rewrite orb_false_r, interval_In, in_interval_rays, negb_ray by assumption. reflexivity.
  - assert (H : npos s <p npos os) by pord.
    destruct (ray_nested true _ _ lo olo (ppos p) H) as [N _].
    destruct (after (npos s) lo (ppos p)), (after (npos os) olo (ppos p)); try reflexivity; discriminate N.
Qed.
Lemma ivl_compl_upper : forall e ro oe oro p, num_ok e = true -> num_ok oe = true ->
    existsb (In_set p) (if num_eqb (nmin e oe) e then [interval e oe (negb ro) oro] else [])
    = before (npos oe) oro (ppos p) && negb (before (npos e) ro (ppos p)).
Proof.
  intros e ro oe oro p He Hoe. destruct (nmin_l_spec e oe He Hoe) as [L|L]; cbn [existsb].
  - rewrite orb_false_r, interval_In, in_interval_rays, negb_ray by assumption. apply andb_comm.
  - assert (H : npos oe <p npos e) by pord.
    destruct (ray_nested false _ _ ro oro (ppos p) H) as [N _].
    destruct (before (npos e) ro (ppos p)), (before (npos oe) oro (ppos p)); try reflexivity; discriminate N.
Qed.

Lemma ivl_compl_core : forall s e lo ro os oe olo oro p,
    wf_set (SInterval s e lo ro) = true -> wf_set (SInterval os oe olo oro) = true ->
    is_empty (ivl_inter_ivl s e lo ro os oe olo oro) = false ->
    existsb (In_set p)
      ((if num_eqb (nmax s os) s then [interval os s olo (negb lo)] else [])
       ++ (if num_eqb (nmin e oe) e then [interval e oe (negb ro) oro] else []))
    = in_interval os oe olo oro p && negb (in_interval s e lo ro p).
Proof.
  intros s e lo ro os oe olo oro p H1 H2 P.
  apply wf_interval_inv in H1. destruct H1 as [Hs [He Hse]].
  apply wf_interval_inv in H2. destruct H2 as [Hos [Hoe Hose]].
  pose proof (ivl_inter_cover s e lo ro os oe olo oro (ppos p) Hs He Hos Hoe P) as K.
  rewrite existsb_app, ivl_compl_lower, ivl_compl_upper, !in_interval_rays by assumption.
  four_rays s lo e ro os olo oe oro p; try reflexivity; discriminate K.
Qed.

Lemma ivl_compl_pieces_wf : forall s e lo ro os oe olo oro,
    num_ok s = true -> num_ok e = true -> num_ok os = true -> num_ok oe = true ->
    forallb wf_set
      ((if num_eqb (nmax s os) s then [interval os s olo (negb lo)] else [])
       ++ (if num_eqb (nmin e oe) e then [interval e oe (negb ro) oro] else [])) = true.
Proof.
  intros. destruct (num_eqb (nmax s os) s); destruct (num_eqb (nmin e oe) e); simpl;
    rewrite ?interval_wf by assumption; reflexivity.
Qed.
