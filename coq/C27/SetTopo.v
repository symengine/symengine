(* C27 proofs, layer 7: boundary, interior and closure of the sets that are not Union / Intersection /
   Complement nodes, against their definitions on germs. *)
From Coq Require Import QArith.
From SE Require Import C27.SetSpec C27.SetOrder C27.SetNum C27.SetCont C27.SetIvl C27.SetFin C27.SetProofs.
Local Open Scope m_scope.

Lemma in_finite_near : forall l q ab irr, forallb num_ok l = true -> in_finite l (PNear q ab irr) = false.
Proof.
  intros l q ab irr Hl. apply not_true_iff_false. intro E.
  apply in_finite_iff in E. destruct E as [a [Ha A]]. simpl in A.
  apply (npos_not_near a q (if ab then 1 else -1)%Z); [exact (forallb_In num_ok l a Hl Ha)|destruct ab; auto|exact A].
Qed.

(* membership in an interval does not see whether a germ is rational *)
Lemma in_interval_near_irr : forall s e lo ro q ab i1 i2,
    in_interval s e lo ro (PNear q ab i1) = in_interval s e lo ro (PNear q ab i2).
Proof. intros. rewrite !in_interval_rays. reflexivity. Qed.

Definition boundary_of (p : point) (S : sv) : bool := in_closure p S && negb (in_interior p S).

Lemma boundary_interval : forall s e lo ro c, wf_set (SInterval s e lo ro) = true -> same_elems c [s; e] ->
    forall p, in_finite c p = boundary_of p (SInterval s e lo ro).
Proof.
  intros s e lo ro c Hwf Hc p.
  pose proof (wf_interval_inv _ _ _ _ Hwf) as [Hs [He Hlt]].
  rewrite (in_finite_same c _ p Hc). unfold boundary_of.
  destruct p as [q|q ab irr].
  - unfold in_closure, in_interior, germs. cbn [existsb forallb In_set].
    rewrite !in_finite_cons'. unfold at_pos. rewrite !in_interval_rays, !cmp_np_pos. cbn [ppos].
    destruct (ray_near true s q lo Hs) as [S1 S2]. destruct (ray_near false e q ro He) as [E1 E2].
    rewrite S1, S2, E1, E2. unfold ray. cmp_cases; destruct lo, ro; reflexivity.
  - rewrite in_finite_near by (simpl; rewrite Hs, He; reflexivity).
    unfold in_closure, in_interior, side_germs. simpl existsb. simpl forallb. simpl In_set.
    rewrite (in_interval_near_irr s e lo ro q ab true false).
    destruct (in_interval s e lo ro (PNear q ab false)); reflexivity.
Qed.

Section Topo.
  Variable rec : call -> M sv.
  Hypothesis Hrec : rec_ok rec.

  Lemma boundary_simple_ok : forall s r, simple s = true -> wf_set s = true ->
      boundary rec s = (Ok r, []) -> wf_set r = true /\ forall p, In_set p r = boundary_of p s.
  Proof.
    intros s r Hsimple Hwf H. unfold boundary in H. unfold boundary_of.
    destruct s; try discriminate Hsimple; minv.
    - split; [reflexivity|]. intros [q|q ab irr]; reflexivity.
    - split; [reflexivity|]. intros [q|q ab irr]; reflexivity.
    - split; [reflexivity|]. intros [q|q ab irr]; reflexivity.
    - split; [reflexivity|]. intros [q|q ab irr]; simpl; try reflexivity; try (destruct ab; reflexivity).
    - split; [reflexivity|]. intros [q|q ab irr]; simpl; try reflexivity;
      try (destruct (q_is_int q); reflexivity).
    - split; [reflexivity|]. intros [q|q ab irr]; simpl; try reflexivity;
      try (destruct (q_is_int q && (0 <? Qnum q)%Z); reflexivity).
    - split; [reflexivity|]. intros [q|q ab irr]; simpl; try reflexivity;
      try (destruct (q_is_int q && (0 <=? Qnum q)%Z); reflexivity).
    - (* Interval *) pose proof (nb_make_ok _ _ Hm) as Hse.
      pose proof (wf_interval_inv _ _ _ _ Hwf) as [Hs [He Hlt]]. split.
      + apply finiteset_wf. apply (forallb_same_true num_ok x _ Hse). simpl. rewrite Hs, He. reflexivity.
      + intro p. rewrite finiteset_In. apply boundary_interval; assumption.
    - (* FiniteSet *) split; [assumption|]. simpl in Hwf. intros [q|q ab irr].
      + unfold in_closure, in_interior, germs. simpl existsb. simpl forallb. simpl In_set.
        rewrite !in_finite_near by assumption. simpl. rewrite andb_false_r. simpl. rewrite orb_false_r, andb_true_r. reflexivity.
      + unfold in_closure, in_interior, side_germs. simpl existsb. simpl forallb. simpl In_set.
        rewrite !in_finite_near by assumption. reflexivity.
  Qed.

  (* a set lies between its interior and its closure *)
  Lemma interior_sub : forall p S, in_interior p S = true -> In_set p S = true.
  Proof.
    intros [q|q ab irr] S H; unfold in_interior in H.
    - apply andb_prop in H. tauto.
    - unfold side_germs in H. simpl in H. destruct irr.
      + apply andb_prop in H. destruct H as [_ H]. apply andb_prop in H. tauto.
      + apply andb_prop in H. tauto.
  Qed.
  Lemma closure_sup : forall p S, In_set p S = true -> in_closure p S = true.
  Proof.
    intros [q|q ab irr] S H; unfold in_closure.
    - rewrite H. reflexivity.
    - unfold side_germs. simpl. destruct irr; rewrite H; rewrite ?orb_true_r; reflexivity.
  Qed.

  Lemma topo_bool : forall s c i : bool, (i = true -> s = true) -> (s = true -> c = true) ->
      s && negb (c && negb i) = i /\ s || (c && negb i) = c.
  Proof. intros [|] [|] [|] H1 H2; simpl; split; try reflexivity; try (discriminate H1; reflexivity); try (discriminate H2; reflexivity). Qed.

  Lemma interior_simple_ok : forall s r, simple s = true -> wf_set s = true ->
      interior rec s = (Ok r, []) -> wf_set r = true /\ interior_spec s r.
  Proof.
    intros s r Hsimple Hwf H. unfold interior in H. minv.
    destruct (Hrec (CBoundary s) x Hm Hwf) as [Hwb Hsb]. simpl in Hsb. specialize (Hsb Hsimple).
    destruct (Hrec (CCompl x s) r Hk) as [Hwr Hsr]; [simpl; rewrite Hwb, Hwf; reflexivity|].
    split; [exact Hwr|]. intro p. simpl in Hsr. rewrite Hsr, (Hsb p).
    apply (topo_bool (In_set p s) (in_closure p s) (in_interior p s)); [apply interior_sub|apply closure_sup].
  Qed.
  Lemma closure_simple_ok : forall s r, simple s = true -> wf_set s = true ->
      closure rec s = (Ok r, []) -> wf_set r = true /\ closure_spec s r.
  Proof.
    intros s r Hsimple Hwf H. unfold closure in H. minv.
    destruct (Hrec (CBoundary s) x Hm Hwf) as [Hwb Hsb]. simpl in Hsb. specialize (Hsb Hsimple).
    destruct (Hrec (CUnion s x) r Hk) as [Hwr Hsr]; [simpl; rewrite Hwb, Hwf; reflexivity|].
    split; [exact Hwr|]. intro p. simpl in Hsr. rewrite Hsr, (Hsb p).
    apply (topo_bool (In_set p s) (in_closure p s) (in_interior p s)); [apply interior_sub|apply closure_sup].
  Qed.

  (* well-formedness of the results for Union / Intersection / Complement operands *)
  Lemma map_ins_wf : forall (f : sv -> M sv) l acc r,
      (forall a x, In a l -> f a = (Ok x, []) -> wf_set x = true) ->
      forallb wf_set acc = true -> map_ins f l acc = (Ok r, []) -> forallb wf_set r = true.
  Proof.
    (* [map_ins_ok] with, for the members of an image, whatever f returned *)
    intros f l acc r Hf Hacc H.
    apply (map_ins_ok f (fun p a => match fst (f a) with Ok x => In_set p x | _ => false end) l acc r); auto.
    intros a x Hin Hx. split; [exact (Hf a x Hin Hx)|]. intro p. rewrite Hx. reflexivity.
  Qed.

  Lemma boundary_union_loop_wf : forall todo pre bsets r,
      forallb wf_set pre = true -> forallb wf_set todo = true -> forallb wf_set bsets = true ->
      boundary_union_loop rec pre todo bsets = (Ok r, []) -> wf_set r = true.
  Proof.
    induction todo as [|x t IH]; intros pre bsets r Hpre Htodo Hb H; simpl in H.
    - apply (Hrec (CFUnion bsets) r H Hb).
    - simpl in Htodo. apply andb_prop in Htodo. destruct Htodo as [Hx Ht]. minv.
      assert (Hints : forallb wf_set x0 = true).
      { apply (map_ins_wf (fun y => rec (CInterior y)) (pre ++ t) [] x0); auto.
        intros a y Hin Hy. apply (Hrec (CInterior a) y Hy). simpl.
        apply in_app_or in Hin. destruct Hin as [Hin|Hin]; [exact (forallb_In wf_set pre a Hpre Hin)|exact (forallb_In wf_set t a Ht Hin)]. }
      match goal with Hu : rec (CFUnion x0) = (Ok ?iu, []) |- _ => destruct (Hrec (CFUnion x0) iu Hu Hints) as [Hwiu _] end.
      match goal with Hbd : rec (CBoundary x) = (Ok ?b, []) |- _ => destruct (Hrec (CBoundary x) b Hbd Hx) as [Hwb _] end.
      match goal with Hd : rec (CCompl ?iu ?b) = (Ok ?d, []) |- _ =>
        destruct (Hrec (CCompl iu b) d Hd) as [Hwd _]; [simpl; rewrite Hwiu, Hwb; reflexivity|] end.
      match goal with Hi : ss_ins ?d bsets = (Ok ?bs', []) |- _ => pose proof (ss_ins_ok _ _ _ Hi) as Hse end.
      match goal with Hl : boundary_union_loop rec _ t _ = _ |- _ => apply IH in Hl; auto end.
      + rewrite forallb_app. rewrite Hpre. simpl. rewrite Hx. reflexivity.
      + eapply forallb_same_true; [exact Hse|]. simpl. rewrite Hwd, Hb. reflexivity.
  Qed.

  (* one step of the recursion: every entry point *)
  Theorem dispatch_ok : rec_ok (dispatch rec).
  Proof using Hrec.
    intros c r H Hwf.
    destruct c; try (apply (dispatch_sets_ok rec Hrec); auto; exact I).
    - (* boundary *) simpl in H, Hwf. destruct (simple s) eqn:Es.
      + destruct (boundary_simple_ok s r Es Hwf H) as [Hw Hs]. split; [exact Hw|]. intros _ p. apply Hs.
      + (* Union / Intersection / Complement: no claim on the value; the result is well-formed *)
        split; [|simpl; rewrite Es; intro Hc; discriminate Hc].
        destruct s; try discriminate Es; simpl in H.
        * apply flag_if_ok in H. destruct H as [_ H]. apply wf_union_inv in Hwf. destruct Hwf as [_ Hl].
          apply (boundary_union_loop_wf l [] [] r); auto.
        * inversion H.
        * inversion H.
    - simpl in H, Hwf. destruct (simple s) eqn:Es.
      + destruct (interior_simple_ok s r Es Hwf H) as [Hw Hs]. split; [exact Hw|]. intros _. exact Hs.
      + split; [|simpl; rewrite Es; intro Hc; discriminate Hc].
        unfold interior in H. minv. destruct (Hrec (CBoundary s) x Hm Hwf) as [Hwb _].
        apply (Hrec (CCompl x s) r Hk). simpl. rewrite Hwb, Hwf. reflexivity.
    - simpl in H, Hwf. destruct (simple s) eqn:Es.
      + destruct (closure_simple_ok s r Es Hwf H) as [Hw Hs]. split; [exact Hw|]. intros _. exact Hs.
      + split; [|simpl; rewrite Es; intro Hc; discriminate Hc].
        unfold closure in H. minv. destruct (Hrec (CBoundary s) x Hm Hwf) as [Hwb _].
        apply (Hrec (CUnion s x) r Hk). simpl. rewrite Hwb, Hwf. reflexivity.
  Qed.
End Topo.

Theorem run_ok : forall fuel, rec_ok (run fuel).
Proof.
  induction fuel as [|f IH].
  - intros c r H. simpl in H. inversion H.
  - simpl. apply dispatch_ok. exact IH.
Qed.
