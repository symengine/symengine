(* C27 proofs, layer 1: the total order of POSITIONS (extended rationals refined by the one-sided germs),
   in which both the endpoints / elements of set expressions and the points of the specification
   live; a decision tactic for it ([pord], built on the standard library's [order]). *)
From Coq Require Import QArith Lia Orders OrdersTac Lqa.
From SE Require Import C27.SetSpec.

Inductive pos :=
| PNeg                      (* below every real *)
| PFin (q : Q) (o : Z)      (* q, or just below (o < 0) / just above (o > 0) q *)
| PPos.

Definition pos_cmp (x y : pos) : comparison :=
  match x, y with
  | PNeg, PNeg => Eq
  | PNeg, _ => Lt
  | _, PNeg => Gt
  | PPos, PPos => Eq
  | PPos, _ => Gt
  | _, PPos => Lt
  | PFin q1 o1, PFin q2 o2 =>
      match (q1 ?= q2)%Q with
      | Eq => (o1 ?= o2)%Z
      | c => c
      end
  end.

Lemma Qcmp_Eq : forall a b : Q, (a ?= b)%Q = Eq <-> (a == b)%Q.
Proof. intros; symmetry; apply Qeq_alt. Qed.

Lemma pos_cmp_antisym : forall x y, pos_cmp y x = CompOpp (pos_cmp x y).
Proof.
  intros [|q1 o1|] [|q2 o2|]; simpl; try reflexivity.
  rewrite <- (Qcompare_antisym q1 q2).
  destruct (q1 ?= q2)%Q; simpl; try reflexivity.
  apply Z.compare_antisym.
Qed.

Lemma pos_cmp_refl : forall x, pos_cmp x x = Eq.
Proof.
  intros [|q o|]; simpl; try reflexivity.
  assert (H : (q ?= q)%Q = Eq) by (apply Qcmp_Eq; reflexivity).
  rewrite H. apply Z.compare_refl.
Qed.

Module PosO.
  Definition t := pos.
  (* wrapped in inductive predicates so that the order tactic never sees the underlying equations *)
  Inductive eq_ (x y : pos) : Prop := eq_intro : pos_cmp x y = Eq -> eq_ x y.
  Inductive lt_ (x y : pos) : Prop := lt_intro : pos_cmp x y = Lt -> lt_ x y.
  Inductive le_ (x y : pos) : Prop := le_intro : pos_cmp x y <> Gt -> le_ x y.
  Definition eq := eq_.
  Definition lt := lt_.
  Definition le := le_.

  Lemma eq_iff : forall x y, eq x y <-> pos_cmp x y = Eq.
  Proof. split; [intros [H]; exact H | intro H; constructor; exact H]. Qed.
  Lemma lt_iff : forall x y, lt x y <-> pos_cmp x y = Lt.
  Proof. split; [intros [H]; exact H | intro H; constructor; exact H]. Qed.
  Lemma le_iff : forall x y, le x y <-> pos_cmp x y <> Gt.
  Proof. split; [intros [H]; exact H | intro H; constructor; exact H]. Qed.

  Lemma eq_sym : forall x y, eq x y -> eq y x.
  Proof. intros x y H; apply eq_iff in H; apply eq_iff; rewrite pos_cmp_antisym, H; reflexivity. Qed.

  Lemma cmp_trans_gen : forall x y z,
      (pos_cmp x y = Eq -> pos_cmp y z = Eq -> pos_cmp x z = Eq) /\
      (pos_cmp x y = Lt -> pos_cmp y z = Lt -> pos_cmp x z = Lt) /\
      (pos_cmp x y = Eq -> pos_cmp y z = Lt -> pos_cmp x z = Lt) /\
      (pos_cmp x y = Lt -> pos_cmp y z = Eq -> pos_cmp x z = Lt).
  Proof.
    intros [|q1 o1|] [|q2 o2|] [|q3 o3|]; simpl; repeat split; intros; try congruence.
    all: destruct (Qcompare_spec q1 q2); destruct (Qcompare_spec q2 q3); destruct (Qcompare_spec q1 q3);
      try congruence; try (exfalso; lra).
    all: repeat match goal with
         | H : (_ ?= _)%Z = Eq |- _ => apply Z.compare_eq_iff in H
         | H : (_ ?= _)%Z = Lt |- _ => rewrite Z.compare_lt_iff in H
         end.
    all: try (apply Z.compare_eq_iff; lia).
    all: try (rewrite Z.compare_lt_iff; lia).
  Qed.

  Lemma eq_equiv : Equivalence eq.
  Proof.
    split.
    - intro x; apply eq_iff; apply pos_cmp_refl.
    - intros x y; apply eq_sym.
    - intros x y z H1 H2; apply eq_iff in H1; apply eq_iff in H2; apply eq_iff;
        exact (proj1 (cmp_trans_gen x y z) H1 H2).
  Qed.

  Lemma lt_strorder : StrictOrder lt.
  Proof.
    split.
    - intros x H; apply lt_iff in H; rewrite pos_cmp_refl in H; discriminate.
    - intros x y z H1 H2; apply lt_iff in H1; apply lt_iff in H2; apply lt_iff;
        exact (proj1 (proj2 (cmp_trans_gen x y z)) H1 H2).
  Qed.

  Lemma lt_compat : Proper (eq ==> eq ==> iff) lt.
  Proof.
    intros x x' Hx y y' Hy; split; intro H; apply lt_iff in H; apply lt_iff.
    - apply eq_sym in Hx. apply eq_iff in Hx; apply eq_iff in Hy.
      pose proof (proj1 (proj2 (proj2 (cmp_trans_gen x' x y))) Hx H) as H1.
      exact (proj2 (proj2 (proj2 (cmp_trans_gen x' y y'))) H1 Hy).
    - apply eq_sym in Hy. apply eq_iff in Hx; apply eq_iff in Hy.
      pose proof (proj1 (proj2 (proj2 (cmp_trans_gen x x' y'))) Hx H) as H1.
      exact (proj2 (proj2 (proj2 (cmp_trans_gen x y' y))) H1 Hy).
  Qed.

  Lemma le_lteq : forall x y, le x y <-> lt x y \/ eq x y.
  Proof.
    intros x y; rewrite le_iff, lt_iff, eq_iff.
    destruct (pos_cmp x y); split; intros; try tauto; try congruence.
    all: try (destruct H; congruence).
  Qed.

  Lemma lt_total : forall x y, lt x y \/ eq x y \/ lt y x.
  Proof.
    intros x y; rewrite !lt_iff, eq_iff; rewrite (pos_cmp_antisym x y).
    destruct (pos_cmp x y); simpl; auto.
  Qed.
End PosO.

Module PosTac := MakeOrderTac PosO PosO.

Notation "x <p y" := (PosO.lt x y) (at level 70).
Notation "x <=p y" := (PosO.le x y) (at level 70).
Notation "x =p y" := (PosO.eq x y) (at level 70).

(* three-way case analysis on a comparison, leaving order facts *)
Lemma pos_cmp_spec : forall x y,
    (pos_cmp x y = Eq /\ x =p y) \/ (pos_cmp x y = Lt /\ x <p y) \/ (pos_cmp x y = Gt /\ y <p x).
Proof.
  intros x y. rewrite PosO.eq_iff, !PosO.lt_iff. rewrite (pos_cmp_antisym x y).
  destruct (pos_cmp x y); simpl; auto.
Qed.

Ltac pord := PosTac.order.

(* the order read in a direction: upwards for [d = true], downwards for [d = false] *)
Definition dlt (d : bool) (x y : pos) : Prop := if d then x <p y else y <p x.
Definition dle (d : bool) (x y : pos) : Prop := if d then x <=p y else y <=p x.
Lemma dle_eq : forall d x y, x =p y -> dle d x y.
Proof. intros [] x y H; unfold dle; pord. Qed.
Lemma dle_trans : forall d x y z, dle d x y -> dle d y z -> dle d x z.
Proof. intros [] x y z; unfold dle; intros; pord. Qed.

Definition npos (a : number) : pos :=
  match a with
  | NInf d => if (d <? 0)%Z then PNeg else PPos
  | _ => match qval a with Some v => PFin v 0 | None => PPos end
  end.
Definition ppos (p : point) : pos :=
  match p with
  | PAt q => PFin q 0
  | PNear q above _ => PFin q (if above then 1 else -1)
  end.

Lemma cmp_np_pos : forall a p, cmp_np a p = pos_cmp (npos a) (ppos p).
Proof.
  intros a p. unfold cmp_np, npos.
  destruct a as [z|n d|rn rd imn imd|bits|re im|dir|]; simpl; try reflexivity;
    try (destruct p; reflexivity).
  - destruct p as [q|q ab irr]; simpl.
    + destruct (inject_Z z ?= q)%Q; reflexivity.
    + destruct (inject_Z z ?= q)%Q; try reflexivity. destruct ab; reflexivity.
  - destruct p as [q|q ab irr]; simpl.
    + destruct (n # d ?= q)%Q; reflexivity.
    + destruct (n # d ?= q)%Q; try reflexivity. destruct ab; reflexivity.
  - destruct (dir <? 0)%Z; destruct p; reflexivity.
Qed.

