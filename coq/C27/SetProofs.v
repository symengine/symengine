(* C27 proofs, layer 6: every member function and free function of the model satisfies its
   pointwise specification whenever it returns without a defect flag, by induction on the recursion
   fuel (all functions are mutually recursive through [run]). *)
From Coq Require Import QArith Btauto.
From SE Require Import C27.SetSpec C27.SetOrder C27.SetNum C27.SetCont C27.SetIvl C27.SetFin C27.SetInt C27.SetKey C27.SetWalk.
Local Open Scope m_scope.

Definition simple (s : sv) : bool :=
  match s with SUnion _ | SInter _ | SCompl _ _ => false | _ => true end.

Definition call_wf (c : call) : bool :=
  match c with
  | CUnion a o | CInter a o | CCompl a o | CHelper a o => wf_set a && wf_set o
  | CFUnion l | CFInter l => forallb wf_set l
  | CBoundary s | CInterior s | CClosure s => wf_set s
  end.

Definition call_spec (c : call) (r : sv) : Prop :=
  match c with
  | CUnion a o => forall p, In_set p r = In_set p a || In_set p o
  | CInter a o => forall p, In_set p r = In_set p a && In_set p o
  | CCompl a o => forall p, In_set p r = In_set p o && negb (In_set p a)
  | CFUnion l => forall p, In_set p r = existsb (In_set p) l
  | CFInter l => forall p, In_set p r = forallb (In_set p) l
  | CHelper c u => forall p, In_set p r = In_set p u && negb (In_set p c)
  | CBoundary s => simple s = true -> boundary_spec s r
  | CInterior s => simple s = true -> interior_spec s r
  | CClosure s => simple s = true -> closure_spec s r
  end.

Definition rec_ok (rec : call -> M sv) : Prop :=
  forall c r, rec c = (Ok r, []) -> call_wf c = true -> wf_set r = true /\ call_spec c r.

(* the calls for union ([u = true]) and intersection ([u = false]) side by side, as in [SetCont] *)
Definition call_op (u : bool) : sv -> sv -> call := if u then CUnion else CInter.
Definition call_fop (u : bool) : list sv -> call := if u then CFUnion else CFInter.

Section WithRec.
  Variable rec : call -> M sv.
  Hypothesis Hrec : rec_ok rec.

  Lemma rec_union : forall a o r, rec (CUnion a o) = (Ok r, []) -> wf_set a = true -> wf_set o = true ->
      wf_set r = true /\ forall p, In_set p r = In_set p a || In_set p o.
  Proof. intros a o r H Ha Ho. exact (Hrec (CUnion a o) r H (andb_true_intro (conj Ha Ho))). Qed.
  Lemma rec_inter : forall a o r, rec (CInter a o) = (Ok r, []) -> wf_set a = true -> wf_set o = true ->
      wf_set r = true /\ forall p, In_set p r = In_set p a && In_set p o.
  Proof. intros a o r H Ha Ho. exact (Hrec (CInter a o) r H (andb_true_intro (conj Ha Ho))). Qed.
  Lemma rec_compl : forall a o r, rec (CCompl a o) = (Ok r, []) -> wf_set a = true -> wf_set o = true ->
      wf_set r = true /\ forall p, In_set p r = In_set p o && negb (In_set p a).
  Proof. intros a o r H Ha Ho. exact (Hrec (CCompl a o) r H (andb_true_intro (conj Ha Ho))). Qed.
  Lemma rec_helper : forall a o r, rec (CHelper a o) = (Ok r, []) -> wf_set a = true -> wf_set o = true ->
      wf_set r = true /\ forall p, In_set p r = In_set p o && negb (In_set p a).
  Proof. intros a o r H Ha Ho. exact (Hrec (CHelper a o) r H (andb_true_intro (conj Ha Ho))). Qed.
  Lemma rec_funion : forall l r, rec (CFUnion l) = (Ok r, []) -> forallb wf_set l = true ->
      wf_set r = true /\ forall p, In_set p r = existsb (In_set p) l.
  Proof. intros l r H Hl. exact (Hrec (CFUnion l) r H Hl). Qed.
  Lemma rec_finter : forall l r, rec (CFInter l) = (Ok r, []) -> forallb wf_set l = true ->
      wf_set r = true /\ forall p, In_set p r = forallb (In_set p) l.
  Proof. intros l r H Hl. exact (Hrec (CFInter l) r H Hl). Qed.

  Lemma rec_op : forall u a o r, rec (call_op u a o) = (Ok r, []) -> wf_set a = true -> wf_set o = true ->
      wf_set r = true /\ forall p, In_set p r = bop u (In_set p a) (In_set p o).
  Proof. intros []; [exact rec_union|exact rec_inter]. Qed.
  Lemma rec_fop : forall u l r, rec (call_fop u l) = (Ok r, []) -> forallb wf_set l = true ->
      wf_set r = true /\ forall p, In_set p r = quant u (In_set p) l.
  Proof. intros []; [exact rec_funion|exact rec_finter]. Qed.

  (* a result given by the recursive call with the operands exchanged *)
  Lemma rec_union_comm : forall a o r, rec (CUnion o a) = (Ok r, []) -> wf_set a = true -> wf_set o = true ->
      wf_set r = true /\ forall p, In_set p r = In_set p a || In_set p o.
  Proof.
    intros a o r H Ha Ho. destruct (rec_union o a r H Ho Ha) as [Hw Hs]. split; [exact Hw|].
    intro p. rewrite Hs. apply orb_comm.
  Qed.
  Lemma rec_inter_comm : forall a o r, rec (CInter o a) = (Ok r, []) -> wf_set a = true -> wf_set o = true ->
      wf_set r = true /\ forall p, In_set p r = In_set p a && In_set p o.
  Proof.
    intros a o r H Ha Ho. destruct (rec_inter o a r H Ho Ha) as [Hw Hs]. split; [exact Hw|].
    intro p. rewrite Hs. apply andb_comm.
  Qed.
  Ltac by_rec_comm L :=
    match goal with
    | H : rec _ = (Ok _, []) |- _ => exact (L _ _ _ H ltac:(first [reflexivity|assumption]) ltac:(assumption))
    end.

  Lemma reals_union_ok : forall o r, wf_set o = true -> reals_union rec o = (Ok r, []) ->
      wf_set r = true /\ forall p, In_set p r = In_set p SReals || In_set p o.
  Proof.
    intros o r Ho H. unfold reals_union in H. destruct o; cbv beta iota in H; minv; try (split; [reflexivity|intro p; reflexivity]);
      by_rec_comm rec_union_comm.
  Qed.
  Lemma reals_inter_ok : forall o r, wf_set o = true -> reals_inter rec o = (Ok r, []) ->
      wf_set r = true /\ forall p, In_set p r = In_set p SReals && In_set p o.
  Proof.
    intros o r Ho H. unfold reals_inter in H. destruct o; cbv beta iota in H; minv; try (split; [assumption|intro p; reflexivity]);
      by_rec_comm rec_inter_comm.
  Qed.
  Lemma reals_compl_ok : forall o r, wf_set o = true -> reals_compl rec o = (Ok r, []) ->
      wf_set r = true /\ forall p, In_set p r = In_set p o && negb (In_set p SReals).
  Proof.
    intros o r Ho H. unfold reals_compl in H. destruct o; cbv beta iota in H; minv;
      try (split; [reflexivity|intro p; simpl; rewrite ?andb_false_r; reflexivity]).
    all: apply rec_helper in H; auto.
  Qed.

  (* each number-set function is a table over the class of the operand, with four kinds of entry: the call
     with the operands exchanged, the helper, a Union / Intersection object of the two, or a set returned
     outright, which is right by the inclusions Naturals < Naturals0 < Integers < Rationals ([numset_chain]);
     [numset_case] settles an entry of whichever kind *)
  Ltac numset_case :=
    first
      [ by_rec_comm rec_union_comm
      | by_rec_comm rec_inter_comm
      | match goal with H : rec (CHelper _ _) = _ |- _ => apply rec_helper in H; auto; fail end
      | match goal with H : mk_union2 _ _ = _ |- _ => apply (mk_set2_ok true) in H; [exact H|auto ..] end
      | match goal with H : mk_inter2 _ _ = _ |- _ => apply (mk_set2_ok false) in H; [exact H|auto ..] end
      | (split; [first [reflexivity|assumption|simpl in *; rewrite ?andb_true_r; assumption] | let p := fresh "p" in
                   intro p; simpl; destruct (numset_chain p); reflexivity]) ].

  Lemma rationals_union_ok : forall o r, wf_set o = true -> rationals_union rec o = (Ok r, []) ->
      wf_set r = true /\ forall p, In_set p r = In_set p SRationals || In_set p o.
  Proof. intros o r Ho H. unfold rationals_union in H. destruct o; cbv beta iota in H; minv; numset_case. Qed.
  Lemma rationals_inter_ok : forall o r, wf_set o = true -> rationals_inter rec o = (Ok r, []) ->
      wf_set r = true /\ forall p, In_set p r = In_set p SRationals && In_set p o.
  Proof. intros o r Ho H. unfold rationals_inter in H. destruct o; cbv beta iota in H; minv; numset_case. Qed.
  Lemma rationals_compl_ok : forall o r, wf_set o = true -> rationals_compl rec o = (Ok r, []) ->
      wf_set r = true /\ forall p, In_set p r = In_set p o && negb (In_set p SRationals).
  Proof. intros o r Ho H. unfold rationals_compl in H. destruct o; cbv beta iota in H; minv; numset_case. Qed.

  Lemma integers_union_ok : forall o r, wf_set o = true -> integers_union rec o = (Ok r, []) ->
      wf_set r = true /\ forall p, In_set p r = In_set p SIntegers || In_set p o.
  Proof. intros o r Ho H. unfold integers_union in H. destruct o; cbv beta iota in H; minv; numset_case. Qed.
  Lemma integers_inter_ok : forall o r, wf_set o = true -> integers_inter rec o = (Ok r, []) ->
      wf_set r = true /\ forall p, In_set p r = In_set p SIntegers && In_set p o.
  Proof. intros o r Ho H. unfold integers_inter in H. destruct o; cbv beta iota in H; minv; numset_case. Qed.
  Lemma integers_compl_ok : forall o r, wf_set o = true -> integers_compl rec o = (Ok r, []) ->
      wf_set r = true /\ forall p, In_set p r = In_set p o && negb (In_set p SIntegers).
  Proof. intros o r Ho H. unfold integers_compl in H. destruct o; cbv beta iota in H; minv; numset_case. Qed.

  Lemma naturals_union_ok : forall o r, wf_set o = true -> naturals_union rec o = (Ok r, []) ->
      wf_set r = true /\ forall p, In_set p r = In_set p SNaturals || In_set p o.
  Proof. intros o r Ho H. unfold naturals_union in H. destruct o; cbv beta iota in H; minv; numset_case. Qed.
  Lemma naturals_inter_ok : forall o r, wf_set o = true -> naturals_inter rec o = (Ok r, []) ->
      wf_set r = true /\ forall p, In_set p r = In_set p SNaturals && In_set p o.
  Proof. intros o r Ho H. unfold naturals_inter in H. destruct o; cbv beta iota in H; minv; numset_case. Qed.
  Lemma naturals_compl_ok : forall o r, wf_set o = true -> naturals_compl rec o = (Ok r, []) ->
      wf_set r = true /\ forall p, In_set p r = In_set p o && negb (In_set p SNaturals).
  Proof. intros o r Ho H. unfold naturals_compl in H. destruct o; cbv beta iota in H; minv; numset_case. Qed.

  Lemma naturals0_union_ok : forall o r, wf_set o = true -> naturals0_union rec o = (Ok r, []) ->
      wf_set r = true /\ forall p, In_set p r = In_set p SNaturals0 || In_set p o.
  Proof. intros o r Ho H. unfold naturals0_union in H. destruct o; cbv beta iota in H; minv; numset_case. Qed.
  Lemma naturals0_inter_ok : forall o r, wf_set o = true -> naturals0_inter rec o = (Ok r, []) ->
      wf_set r = true /\ forall p, In_set p r = In_set p SNaturals0 && In_set p o.
  Proof. intros o r Ho H. unfold naturals0_inter in H. destruct o; cbv beta iota in H; minv; numset_case. Qed.
  Lemma naturals0_compl_ok : forall o r, wf_set o = true -> naturals0_compl rec o = (Ok r, []) ->
      wf_set r = true /\ forall p, In_set p r = In_set p o && negb (In_set p SNaturals0).
  Proof. intros o r Ho H. unfold naturals0_compl in H. destruct o; cbv beta iota in H; minv; numset_case. Qed.

  Lemma existsb_and_r : forall {A} (f : A -> bool) b l, existsb (fun a => f a && b) l = existsb f l && b.
  Proof. induction l as [|x t IH]; simpl; [reflexivity|]. rewrite IH. destruct (f x), b, (existsb f t); reflexivity. Qed.
  Lemma forallb_or_r : forall {A} (f : A -> bool) b l, forallb (fun a => f a || b) l = forallb f l || b.
  Proof. induction l as [|x t IH]; simpl; [reflexivity|]. rewrite IH. destruct (f x), b, (forallb f t); reflexivity. Qed.
  Lemma existsb_diff : forall {A} (f : A -> bool) b l, existsb (fun a => b && negb (f a)) l = b && negb (forallb f l).
  Proof. induction l as [|x t IH]; simpl; [rewrite andb_false_r; reflexivity|]. rewrite IH. destruct (f x), b, (forallb f t); reflexivity. Qed.
  Lemma forallb_diff : forall {A} (f : A -> bool) b l, l <> [] ->
      forallb (fun a => b && negb (f a)) l = b && negb (existsb f l).
  Proof.
    induction l as [|x t IH]; intro Hn; [congruence|]. simpl.
    destruct t as [|y t'].
    - simpl. rewrite andb_true_r, orb_false_r. reflexivity.
    - rewrite IH by discriminate. destruct (f x), b, (existsb f (y :: t')); reflexivity.
  Qed.

  (* container.insert(f(a)) for every member: the result has the members' images and the old elements *)
  Lemma map_ins_ok : forall (f : sv -> M sv) (h : point -> sv -> bool) l acc r,
      (forall a x, In a l -> f a = (Ok x, []) -> wf_set x = true /\ forall p, In_set p x = h p a) ->
      forallb wf_set acc = true ->
      map_ins f l acc = (Ok r, []) ->
      forallb wf_set r = true /\
      (forall p, existsb (In_set p) r = existsb (h p) l || existsb (In_set p) acc) /\
      (forall p, forallb (In_set p) r = forallb (h p) l && forallb (In_set p) acc) /\
      (l <> [] \/ acc <> [] -> r <> []).
  Proof.
    induction l as [|a t IH]; intros acc r Hf Hacc H; simpl in H.
    - minv. repeat split; auto. intros [Hn|Hn]; congruence.
    - minv. destruct (Hf a x (or_introl eq_refl) Hm) as [Hwx Hsx].
      pose proof (ss_ins_ok _ _ _ Hm0) as Hse.
      assert (Hacc' : forallb wf_set x0 = true).
      { apply (forallb_same_true wf_set x0 (x :: acc) Hse). simpl. rewrite Hwx, Hacc. reflexivity. }
      destruct (IH x0 r (fun a' x' Hin => Hf a' x' (or_intror Hin)) Hacc' Hk0) as [I1 [I2 [I3 I4]]].
      split; [exact I1|]. split; [|split].
      + intro p. rewrite I2. rewrite (existsb_same_elems (In_set p) x0 (x :: acc) Hse). simpl.
        rewrite Hsx. destruct (h p a), (existsb (h p) t), (existsb (In_set p) acc); reflexivity.
      + intro p. rewrite I3. rewrite (forallb_same_elems (In_set p) x0 (x :: acc) Hse). simpl.
        rewrite Hsx. destruct (h p a), (forallb (h p) t), (forallb (In_set p) acc); reflexivity.
      + intros _. apply I4. right. eapply same_elems_cons_ne; eauto.
  Qed.

  (* the members' images are inserted into an empty container and handed to the free function *)
  Lemma map_rec_ok : forall u (f : sv -> M sv) (h : point -> sv -> bool) l r,
      (forall a x, In a l -> f a = (Ok x, []) -> wf_set x = true /\ forall p, In_set p x = h p a) ->
      (c <- map_ins f l [] ;; rec (call_fop u c)) = (Ok r, []) ->
      wf_set r = true /\ forall p, In_set p r = quant u (h p) l.
  Proof.
    intros u f h l r Hf H. minv.
    destruct (map_ins_ok f h l [] x Hf eq_refl Hm) as [I1 [I2 [I3 _]]].
    apply rec_fop in Hk; [|exact I1]. destruct Hk as [Hw Hs]. split; [exact Hw|].
    intro p. rewrite Hs. destruct u; unfold quant; [rewrite I2; apply orb_false_r|rewrite I3; apply andb_true_r].
  Qed.

  Lemma union_inter_ok : forall l o r, wf_set (SUnion l) = true -> wf_set o = true ->
      union_inter rec l o = (Ok r, []) ->
      wf_set r = true /\ forall p, In_set p r = In_set p (SUnion l) && In_set p o.
  Proof.
    intros l o r Hl Ho H. apply wf_union_inv in Hl. destruct Hl as [Hne Hl].
    apply (map_rec_ok true _ (fun p a => In_set p a && In_set p o)) in H.
    - destruct H as [Hw Hs]. split; [exact Hw|]. intro p. rewrite Hs. apply existsb_and_r.
    - intros a y Hin Hy. apply rec_inter in Hy; auto. eapply forallb_In; eauto.
  Qed.

  Lemma union_compl_ok : forall l o r, wf_set (SUnion l) = true -> wf_set o = true ->
      union_compl rec l o = (Ok r, []) ->
      wf_set r = true /\ forall p, In_set p r = In_set p o && negb (In_set p (SUnion l)).
  Proof.
    intros l o r Hl Ho H. apply wf_union_inv in Hl. destruct Hl as [Hne Hl].
    apply (map_rec_ok false _ (fun p a => In_set p o && negb (In_set p a))) in H.
    - destruct H as [Hw Hs]. split; [exact Hw|]. intro p. rewrite Hs. apply forallb_diff. exact Hne.
    - intros a y Hin Hy. apply rec_compl in Hy; auto. eapply forallb_In; eauto.
  Qed.

  Lemma inter_union_ok : forall l o r, wf_set (SInter l) = true -> wf_set o = true ->
      inter_union rec l o = (Ok r, []) ->
      wf_set r = true /\ forall p, In_set p r = In_set p (SInter l) || In_set p o.
  Proof.
    intros l o r Hl Ho H. simpl in Hl.
    apply (map_rec_ok false _ (fun p a => In_set p a || In_set p o)) in H.
    - destruct H as [Hw Hs]. split; [exact Hw|]. intro p. rewrite Hs. apply forallb_or_r.
    - intros a y Hin Hy. apply rec_union in Hy; auto. eapply forallb_In; eauto.
  Qed.

  Lemma inter_compl_ok : forall l o r, wf_set (SInter l) = true -> wf_set o = true ->
      inter_compl rec l o = (Ok r, []) ->
      wf_set r = true /\ forall p, In_set p r = In_set p o && negb (In_set p (SInter l)).
  Proof.
    intros l o r Hl Ho H. simpl in Hl.
    apply (map_rec_ok true _ (fun p a => In_set p o && negb (In_set p a))) in H.
    - destruct H as [Hw Hs]. split; [exact Hw|]. intro p. rewrite Hs. apply existsb_diff.
    - intros a y Hin Hy. apply rec_compl in Hy; auto. eapply forallb_In; eauto.
  Qed.

  (* Union::set_union / Intersection::set_intersection *)
  Definition op_loop (u : bool) : sv -> list sv -> list sv -> M sv :=
    if u then union_union_loop rec else inter_inter_loop rec.
  Lemma op_loop_eq : forall u o pre todo, op_loop u o pre todo =
      match todo with
      | [] => l <- ss_ins o pre ;; ret (make_set u l)
      | x :: r =>
          temp <- rec (call_op u o x) ;;
          un <- mk_set2 u o x ;;
          if negb (sv_eq temp un) then l <- ss_ins temp (pre ++ r) ;; rec (call_fop u l)
          else op_loop u o (pre ++ [x]) r
      end.
  Proof. intros [] o pre []; reflexivity. Qed.

  Lemma op_loop_ok : forall u o todo pre r, wf_set o = true ->
      forallb wf_set pre = true -> forallb wf_set todo = true ->
      op_loop u o pre todo = (Ok r, []) ->
      wf_set r = true /\ forall p, In_set p r = bop u (quant u (In_set p) (pre ++ todo)) (In_set p o).
  Proof.
    intros u o todo. induction todo as [|x t IH]; intros pre r Ho Hpre Htodo H; rewrite op_loop_eq in H.
    - minv. pose proof (ss_ins_ok _ _ _ Hm) as Hse. split.
      + apply make_set_wf; [eapply same_elems_cons_ne; eauto|].
        apply (forallb_same_true wf_set x (o :: pre) Hse). simpl. rewrite Ho, Hpre. reflexivity.
      + intro p. rewrite make_set_In, (quant_same_elems u (In_set p) x (o :: pre) Hse), quant_cons, app_nil_r.
        destruct u; [apply orb_comm|apply andb_comm].
    - simpl in Htodo. apply andb_prop in Htodo. destruct Htodo as [Hx Ht].
      minv. apply rec_op in Hm; auto. destruct Hm as [Hwt Hst].
      destruct (negb (sv_eq x0 x1)).
      + minv.
        match goal with Hi : ss_ins _ _ = _ |- _ => pose proof (ss_ins_ok _ _ _ Hi) as Hse end.
        match goal with Hf : rec (call_fop _ _) = _ |- _ => apply rec_fop in Hf; [destruct Hf as [Hw Hs]|] end.
        * split; [exact Hw|]. intro p.
          rewrite Hs, (quant_same_elems u (In_set p) x2 (x0 :: pre ++ t) Hse), quant_cons, Hst, !quant_app, quant_cons.
          generalize (In_set p o) (In_set p x) (quant u (In_set p) pre) (quant u (In_set p) t).
          destruct u; intros [] [] [] []; reflexivity.
        * apply (forallb_same_true wf_set x2 (x0 :: pre ++ t) Hse). simpl. rewrite Hwt, forallb_app, Hpre, Ht. reflexivity.
      + apply IH in Hk0; auto.
        * destruct Hk0 as [Hw Hs]. split; [exact Hw|]. intro p. rewrite Hs. rewrite <- app_assoc. reflexivity.
        * rewrite forallb_app, Hpre. simpl. rewrite Hx. reflexivity.
  Qed.

  (* free_union2 ([u = true]) and free_inter2 *)
  Lemma free_op2_ok : forall u a b r, wf_set a = true -> wf_set b = true ->
      (l <- ss_make [a; b] ;; rec (call_fop u l)) = (Ok r, []) ->
      wf_set r = true /\ forall p, In_set p r = bop u (In_set p a) (In_set p b).
  Proof.
    intros u a b r Ha Hb H. minv. apply ss_make_ok in Hm. apply rec_fop in Hk.
    - destruct Hk as [Hw Hs]. split; [exact Hw|]. intro p.
      rewrite Hs, (quant_same_elems u (In_set p) x [a; b] Hm). apply quant_pair.
    - apply (forallb_same_true wf_set x [a; b] Hm). simpl. rewrite Ha, Hb. reflexivity.
  Qed.
  Lemma free_union2_ok : forall a b r, wf_set a = true -> wf_set b = true ->
      free_union2 rec a b = (Ok r, []) -> wf_set r = true /\ forall p, In_set p r = In_set p a || In_set p b.
  Proof. exact (free_op2_ok true). Qed.
  Lemma free_inter2_ok : forall a b r, wf_set a = true -> wf_set b = true ->
      free_inter2 rec a b = (Ok r, []) -> wf_set r = true /\ forall p, In_set p r = In_set p a && In_set p b.
  Proof. exact (free_op2_ok false). Qed.

  Lemma compl_union_ok : forall u c o r, wf_set (SCompl u c) = true -> wf_set o = true ->
      compl_union rec u c o = (Ok r, []) ->
      wf_set r = true /\ forall p, In_set p r = In_set p (SCompl u c) || In_set p o.
  Proof.
    intros u c o r Huc Ho H. pose proof Huc as Huc'. simpl in Huc. apply andb_prop in Huc. destruct Huc as [Hu Hc].
    unfold compl_union in H. destruct (negb (is_univ u)) eqn:E.
    - exact (mk_set2_ok true _ _ _ Huc' Ho H).
    - apply negb_false_iff in E. destruct u; try discriminate. clear E.
      minv. apply rec_compl in Hm; auto. destruct Hm as [Hw1 Hs1].
      apply free_inter2_ok in Hm0; auto. destruct Hm0 as [Hw2 Hs2].
      apply rec_compl in Hk0; auto. destruct Hk0 as [Hw3 Hs3].
      split; [exact Hw3|]. intro p. rewrite Hs3, Hs2, Hs1. simpl.
      destruct (In_set p c), (In_set p o); reflexivity.
  Qed.
  Lemma compl_inter_ok : forall u c o r, wf_set (SCompl u c) = true -> wf_set o = true ->
      compl_inter rec u c o = (Ok r, []) ->
      wf_set r = true /\ forall p, In_set p r = In_set p (SCompl u c) && In_set p o.
  Proof. intros u c o r Huc Ho H. unfold compl_inter in H. apply free_inter2_ok in H; auto. Qed.
  Lemma compl_compl_ok : forall u c o r, wf_set (SCompl u c) = true -> wf_set o = true ->
      compl_compl rec u c o = (Ok r, []) ->
      wf_set r = true /\ forall p, In_set p r = In_set p o && negb (In_set p (SCompl u c)).
  Proof. intros u c o r Huc Ho H. unfold compl_compl in H. apply rec_helper in H; auto. Qed.


  (* what the first loop of set_union(set_set) leaves, scanning l from the state (input, comb) *)
  Definition fu_scan_post (l input : list sv) (comb : list number) (res : option (list sv * list number)) : Prop :=
    match res with
    | None => forall p, existsb (In_set p) l = true
    | Some (input', comb') =>
        forallb wf_set input' = true /\ forallb num_ok comb' = true /\
        (forall p, existsb (In_set p) input' || in_finite comb' p
                   = existsb (In_set p) l || (existsb (In_set p) input || in_finite comb p))
    end.

  Lemma fu_scan_ok : forall l input comb res,
      forallb wf_set l = true -> forallb wf_set input = true -> forallb num_ok comb = true ->
      fu_scan l input comb = (Ok res, []) -> fu_scan_post l input comb res.
  Proof.
    unfold fu_scan_post. induction l as [|x t IH]; intros input comb res Hl Hin Hc H; simpl in H.
    - minv. repeat split; auto.
    - simpl in Hl. apply andb_prop in Hl. destruct Hl as [Hx Ht].
      assert (Hdef : forall input', ss_ins x input = (Ok input', []) ->
                 fu_scan t input' comb = (Ok res, []) -> fu_scan_post (x :: t) input comb res).
      { unfold fu_scan_post. intros input' Hi Hs. pose proof (ss_ins_ok _ _ _ Hi) as Hse.
        assert (Hw' : forallb wf_set input' = true).
        { apply (forallb_same_true wf_set input' (x :: input) Hse). simpl. rewrite Hx, Hin. reflexivity. }
        specialize (IH input' comb res Ht Hw' Hc Hs). destruct res as [[i2 c2]|].
        - destruct IH as [I1 [I2 I3]]. repeat split; auto. intro p. rewrite I3.
          rewrite (existsb_same_elems (In_set p) input' (x :: input) Hse). simpl.
          destruct (In_set p x), (existsb (In_set p) t), (existsb (In_set p) input), (in_finite comb p); reflexivity.
        - intro p. simpl. rewrite IH. apply orb_true_r. }
      destruct x; try (minv; eapply Hdef; eassumption).
      + (* EmptySet *) specialize (IH input comb res Ht Hin Hc H). destruct res as [[i2 c2]|]; simpl; auto.
      + (* UniversalSet *) minv. intro p. reflexivity.
      + (* FiniteSet *) minv. pose proof (nb_ins_all_ok _ _ _ Hm) as Hse.
        assert (Hc' : forallb num_ok x = true).
        { apply (forallb_same_true num_ok x (l ++ comb) Hse). rewrite forallb_app. simpl in Hx. rewrite Hx, Hc. reflexivity. }
        specialize (IH input x res Ht Hin Hc' Hk). destruct res as [[i2 c2]|].
        * destruct IH as [I1 [I2 I3]]. repeat split; auto. intro p. rewrite I3.
          rewrite (in_finite_same x (l ++ comb) p Hse), in_finite_app. simpl.
          destruct (in_finite l p), (existsb (In_set p) t), (existsb (In_set p) input), (in_finite comb p); reflexivity.
        * intro p. simpl. rewrite IH. apply orb_true_r.
  Qed.

  (* the last loop of the free functions *)
  Definition op_fold (u : bool) : sv -> list sv -> M sv := if u then fu_fold rec else fi_fold rec.
  Lemma op_fold_eq : forall u acc l, op_fold u acc l =
      match l with [] => ret acc | x :: r => acc' <- rec (call_op u acc x) ;; op_fold u acc' r end.
  Proof. intros [] acc []; reflexivity. Qed.
  Lemma op_fold_ok : forall u l acc r, wf_set acc = true -> forallb wf_set l = true ->
      op_fold u acc l = (Ok r, []) ->
      wf_set r = true /\ forall p, In_set p r = bop u (In_set p acc) (quant u (In_set p) l).
  Proof.
    intro u. induction l as [|x t IH]; intros acc r Ha Hl H; rewrite op_fold_eq in H.
    - minv. split; [assumption|]. intro p. destruct u; simpl; [rewrite orb_false_r|rewrite andb_true_r]; reflexivity.
    - simpl in Hl. apply andb_prop in Hl. destruct Hl as [Hx Ht]. minv.
      apply rec_op in Hm; auto. destruct Hm as [Hw Hs].
      apply IH in Hk; auto. destruct Hk as [Hw2 Hs2]. split; [exact Hw2|].
      intro p. rewrite Hs2, Hs, quant_cons. destruct u; simpl; [rewrite orb_assoc|rewrite andb_assoc]; reflexivity.
  Qed.

  Lemma free_union_ok : forall l r, forallb wf_set l = true -> free_union rec l = (Ok r, []) ->
      wf_set r = true /\ forall p, In_set p r = existsb (In_set p) l.
  Proof.
    intros l r Hl H. unfold free_union in H. minv.
    pose proof (fu_scan_ok l [] [] x Hl eq_refl eq_refl Hm) as Hsc. unfold fu_scan_post in Hsc.
    destruct x as [[input comb]|].
    - destruct Hsc as [Hwi [Hwc Hs]].
      assert (Hs' : forall p, existsb (In_set p) l = existsb (In_set p) input || in_finite comb p).
      { intro p. rewrite Hs. simpl. rewrite orb_false_r. reflexivity. }
      (* the general case: the collected elements, united with the other sets one after the other *)
      assert (Hfold : op_fold true (finiteset comb) input = (Ok r, []) ->
                      wf_set r = true /\ forall p, In_set p r = existsb (In_set p) l).
      { intro Hf. apply op_fold_ok in Hf; [|apply finiteset_wf; assumption|exact Hwi].
        destruct Hf as [Hw Hs2]. split; [exact Hw|]. intro p. rewrite Hs2, finiteset_In, Hs'. apply orb_comm. }
      destruct input as [|y [|z t]]; [|destruct comb as [|c cs]; [|exact (Hfold Hk)]|exact (Hfold Hk)].
      + minv. split; [apply finiteset_wf; assumption|]. intro p. rewrite finiteset_In, Hs'. reflexivity.
      + minv. simpl in Hwi. rewrite andb_true_r in Hwi. split; [assumption|]. intro p. rewrite Hs'. simpl.
        rewrite !orb_false_r. reflexivity.
    - minv. split; [reflexivity|]. intro p. rewrite Hsc. reflexivity.
  Qed.

  (* what the first loop of set_intersection(set_set) leaves, scanning l from the state incopy *)
  Definition fi_scan_post (l incopy : list sv) (res : option (list sv)) : Prop :=
    match res with
    | None => forall p, forallb (In_set p) l = false
    | Some incopy' =>
        forallb wf_set incopy' = true /\
        (forall p, forallb (In_set p) incopy' = forallb (In_set p) l && forallb (In_set p) incopy)
    end.

  Lemma fi_scan_ok : forall l incopy res,
      forallb wf_set l = true -> forallb wf_set incopy = true ->
      fi_scan l incopy = (Ok res, []) -> fi_scan_post l incopy res.
  Proof.
    unfold fi_scan_post. induction l as [|x t IH]; intros incopy res Hl Hin H; simpl in H.
    - minv. split; auto.
    - simpl in Hl. apply andb_prop in Hl. destruct Hl as [Hx Ht].
      assert (Hdef : forall incopy', ss_ins x incopy = (Ok incopy', []) ->
                 fi_scan t incopy' = (Ok res, []) -> fi_scan_post (x :: t) incopy res).
      { unfold fi_scan_post. intros incopy' Hi Hs. pose proof (ss_ins_ok _ _ _ Hi) as Hse.
        assert (Hw' : forallb wf_set incopy' = true).
        { apply (forallb_same_true wf_set incopy' (x :: incopy) Hse). simpl. rewrite Hx, Hin. reflexivity. }
        specialize (IH incopy' res Ht Hw' Hs). destruct res as [i2|].
        - destruct IH as [I1 I2]. split; auto. intro p. rewrite I2.
          rewrite (forallb_same_elems (In_set p) incopy' (x :: incopy) Hse). simpl.
          destruct (In_set p x), (forallb (In_set p) t), (forallb (In_set p) incopy); reflexivity.
        - intro p. simpl. rewrite IH. apply andb_false_r. }
      destruct x; try (minv; eapply Hdef; eassumption).
      + (* EmptySet *) minv. intro p. reflexivity.
      + (* UniversalSet *) specialize (IH incopy res Ht Hin H). destruct res as [i2|]; simpl; auto.
  Qed.

  Lemma all_contain_ok : forall l a b, all_contain l a = (Ok b, []) -> b = forallb (fun s => contains s a) l.
  Proof.
    induction l as [|s t IH]; intros a b H; simpl in H.
    - minv. reflexivity.
    - minv. apply IH in Hm. subst. reflexivity.
  Qed.

  Lemma forallb_contains_In : forall l a p, forallb wf_set l = true -> num_ok a = true -> npos a =p ppos p ->
      forallb (fun s => contains s a) l = forallb (In_set p) l.
  Proof.
    intros l a p Hl Ha Hp. apply (quant_ext_in false). intros x Hx. apply contains_In; auto. eapply forallb_In; eauto.
  Qed.

  Lemma fi_finite_ok : forall elems fsets osets acc c,
      forallb num_ok elems = true -> forallb wf_set fsets = true -> forallb wf_set osets = true ->
      forallb num_ok acc = true ->
      fi_finite elems fsets osets acc = (Ok c, []) ->
      forallb num_ok c = true /\
      forall p, in_finite c p = in_finite acc p
                               || (in_finite elems p && forallb (In_set p) fsets && forallb (In_set p) osets).
  Proof.
    induction elems as [|a t IH]; intros fsets osets acc c He Hf Ho Ha H; simpl in H.
    - minv. split; [assumption|]. intro p. simpl. rewrite orb_false_r. reflexivity.
    - simpl in He. apply andb_prop in He. destruct He as [Hok Ht].
      minv. apply all_contain_ok in Hm. subst x.
      assert (Hkey : forall p, at_pos a p = true ->
                forallb (fun s => contains s a) fsets = forallb (In_set p) fsets /\
                forallb (fun s => contains s a) osets = forallb (In_set p) osets).
      { intros p Hp. apply at_pos_iff in Hp. split; apply forallb_contains_In; auto. }
      destruct (negb (forallb (fun s => contains s a) fsets)) eqn:E1.
      + apply negb_true_iff in E1.
        apply IH in Hk; auto. destruct Hk as [I1 I2]. split; [exact I1|]. intro p. rewrite I2, in_finite_cons'.
        destruct (at_pos a p) eqn:Ep; [|reflexivity].
        destruct (Hkey p Ep) as [K1 _]. rewrite <- K1, E1. simpl. rewrite andb_false_r. reflexivity.
      + apply negb_false_iff in E1. minv. apply all_contain_ok in Hm. subst x.
        destruct (forallb (fun s => contains s a) osets) eqn:E2.
        * minv. pose proof (nb_ins_ok _ _ _ Hm) as Hse.
          assert (Hx : forallb num_ok x = true).
          { apply (forallb_same_true num_ok x (a :: acc) Hse). simpl. rewrite Hok, Ha. reflexivity. }
          apply IH in Hk; auto. destruct Hk as [I1 I2]. split; [exact I1|]. intro p. rewrite I2.
          rewrite (in_finite_same x (a :: acc) p Hse), !in_finite_cons'.
          destruct (at_pos a p) eqn:Ep.
          -- destruct (Hkey p Ep) as [K1 K2]. rewrite <- K1, <- K2, E1, ?E2. simpl. rewrite ?orb_true_r. reflexivity.
          -- simpl. reflexivity.
        * apply IH in Hk0; auto. destruct Hk0 as [I1 I2]. split; [exact I1|]. intro p. rewrite I2, in_finite_cons'.
          destruct (at_pos a p) eqn:Ep; [|reflexivity].
          destruct (Hkey p Ep) as [_ K2]. rewrite <- K2, ?E2. simpl. rewrite !andb_false_r. reflexivity.
  Qed.

  Lemma split_first_ok : forall (f : sv -> bool) l pre pre' x post,
      split_first f pre l = Some (pre', x, post) -> pre ++ l = pre' ++ x :: post /\ f x = true.
  Proof.
    induction l as [|y t IH]; intros pre pre' x post H; simpl in H; [discriminate|].
    destruct (f y) eqn:E.
    - inversion H; subst. split; [reflexivity|assumption].
    - apply IH in H. destruct H as [H1 H2]. rewrite <- app_assoc in H1. simpl in H1. split; assumption.
  Qed.

  Lemma forallb_partition : forall {A} (f g : A -> bool) l,
      forallb f l = forallb f (filter g l) && forallb f (filter (fun x => negb (g x)) l).
  Proof.
    induction l as [|x t IH]; simpl; [reflexivity|]. rewrite IH.
    destruct (g x); simpl; destruct (f x), (forallb f (filter g t)), (forallb f (filter (fun x0 => negb (g x0)) t)); reflexivity.
  Qed.
  Lemma forallb_filter_wf : forall (g : sv -> bool) l, forallb wf_set l = true -> forallb wf_set (filter g l) = true.
  Proof.
    induction l as [|x t IH]; intro H; simpl in *; [reflexivity|].
    apply andb_prop in H. destruct H as [Hx Ht]. destruct (g x); simpl; [rewrite Hx|]; auto.
  Qed.

  Lemma free_inter_rest_ok : forall ic r, forallb wf_set ic = true -> free_inter_rest rec ic = (Ok r, []) ->
      wf_set r = true /\ forall p, In_set p r = forallb (In_set p) ic.
  Proof.
    intros ic r Hic H. unfold free_inter_rest in H.
    (* no Union and no Complement among the members: they are intersected one after the other *)
    assert (Hfold : (match ic with x :: t => fi_fold rec x t | [] => ret SUniv end) = (Ok r, []) ->
                    wf_set r = true /\ forall p, In_set p r = forallb (In_set p) ic).
    { intro Hf. destruct ic as [|x t].
      - minv. split; auto.
      - simpl in Hic. apply andb_prop in Hic. destruct Hic as [Hx Ht].
        apply (op_fold_ok false) in Hf; auto. }
    (* a Complement U \ C among them: (U n the others) \ C *)
    assert (Hcompl : (match split_first is_compl [] ic with
                      | Some (pre, SCompl universe container, post) =>
                          incopy' <- ss_ins universe (pre ++ post) ;;
                          other <- rec (CFInter incopy') ;;
                          rec (CCompl container other)
                      | _ => match ic with x :: t => fi_fold rec x t | [] => ret SUniv end
                      end) = (Ok r, []) ->
                     wf_set r = true /\ forall p, In_set p r = forallb (In_set p) ic).
    { intro Hc. destruct (split_first is_compl [] ic) as [[[pre x] post]|] eqn:E; [|auto].
      apply split_first_ok in E. destruct E as [E1 E2]. simpl in E1.
      destruct x; try discriminate E2. subst ic.
      rewrite forallb_app in Hic. simpl in Hic.
      apply andb_prop in Hic. destruct Hic as [Hpre Hic]. apply andb_prop in Hic. destruct Hic as [Hx Hpost].
      apply andb_prop in Hx. destruct Hx as [Hu Hcc].
      minv. pose proof (ss_ins_ok _ _ _ Hm) as Hse.
      apply rec_finter in Hm0.
      - destruct Hm0 as [Hw1 Hs1]. apply rec_compl in Hk0; auto. destruct Hk0 as [Hw2 Hs2].
        split; [exact Hw2|]. intro p. rewrite Hs2, Hs1.
        rewrite (forallb_same_elems (In_set p) x (x1 :: pre ++ post) Hse). simpl.
        rewrite !forallb_app. simpl.
        destruct (In_set p x1), (In_set p x2), (forallb (In_set p) pre), (forallb (In_set p) post); reflexivity.
      - apply (forallb_same_true wf_set x (x1 :: pre ++ post) Hse). simpl. rewrite Hu, forallb_app, Hpre, Hpost. reflexivity. }
    (* a Union among them: the union of its members' intersections with the others *)
    destruct (split_first is_union [] ic) as [[[pre x] post]|] eqn:E; [|auto].
    apply split_first_ok in E. destruct E as [E1 E2]. simpl in E1.
    destruct x; try discriminate E2. subst ic.
    rewrite forallb_app in Hic. simpl forallb in Hic.
    apply andb_prop in Hic. destruct Hic as [Hpre Hic]. apply andb_prop in Hic. destruct Hic as [Hx Hpost].
    apply wf_union_inv in Hx. destruct Hx as [Hne Hl].
    apply mbind_ok in H. destruct H as [other [Hm Hk]].
    apply rec_finter in Hm; [|rewrite forallb_app, Hpre, Hpost; reflexivity]. destruct Hm as [Hw1 Hs1].
    apply (map_rec_ok true _ (fun p c => In_set p c && In_set p other)) in Hk.
    2: { intros a y Hin Hy. apply free_inter2_ok in Hy; [exact Hy|eapply forallb_In; [exact Hl|exact Hin]|exact Hw1]. }
    destruct Hk as [Hw2 Hs2]. split; [exact Hw2|].
    intro p. rewrite Hs2. unfold quant. rewrite existsb_and_r, Hs1.
    rewrite !forallb_app. simpl.
    destruct (existsb (In_set p) l), (forallb (In_set p) pre), (forallb (In_set p) post); reflexivity.
  Qed.

  Lemma filter_finite_all : forall l x, In x (filter is_finite l) -> is_finite x = true.
  Proof. intros l x H. apply filter_In in H. tauto. Qed.

  Lemma free_inter_ok : forall l r, forallb wf_set l = true -> free_inter rec l = (Ok r, []) ->
      wf_set r = true /\ forall p, In_set p r = forallb (In_set p) l.
  Proof.
    intros l r Hl H. unfold free_inter in H.
    destruct l as [|l0 lt]; [minv; split; auto|].
    remember (l0 :: lt) as l eqn:El. clear El.
    minv. pose proof (fi_scan_ok l [] x Hl eq_refl Hm) as Hsc. unfold fi_scan_post in Hsc.
    destruct x as [ic|].
    - destruct Hsc as [Hwi Hs].
      assert (Hs' : forall p, forallb (In_set p) l = forallb (In_set p) ic).
      { intro p. rewrite Hs. simpl. rewrite andb_true_r. reflexivity. }
      destruct ic as [|a [|b t]].
      + minv. split; [reflexivity|]. intro p. rewrite Hs'. reflexivity.
      + minv. simpl in Hwi. rewrite andb_true_r in Hwi. split; [assumption|]. intro p. rewrite Hs'. simpl.
        rewrite andb_true_r. reflexivity.
      + remember (a :: b :: t) as ic eqn:Eic. clear Eic.
        assert (Hrest : free_inter_rest rec ic = (Ok r, []) ->
                        wf_set r = true /\ forall p, In_set p r = forallb (In_set p) l).
        { intro Hr. apply free_inter_rest_ok in Hr; auto. destruct Hr as [Hw Hsr]. split; [exact Hw|].
          intro p. rewrite Hs'. apply Hsr. }
        destruct (filter is_finite ic) as [|f fs] eqn:Ef; [auto|].
        destruct f; auto.
        (* a FiniteSet leads *)
        minv.
        assert (Hfw : forallb wf_set (filter is_finite ic) = true) by (apply forallb_filter_wf; assumption).
        rewrite Ef in Hfw. simpl in Hfw. apply andb_prop in Hfw. destruct Hfw as [Hel Hfs].
        apply fi_finite_ok in Hm0; auto; [|apply forallb_filter_wf; assumption].
        destruct Hm0 as [Hc Hsf]. split; [apply finiteset_wf; assumption|].
        intro p. rewrite finiteset_In, Hsf, Hs'. simpl.
        rewrite (forallb_partition (In_set p) is_finite ic). rewrite Ef. simpl. btauto.
    - minv. split; [reflexivity|]. intro p. rewrite Hsc. reflexivity.
  Qed.

  Lemma wf_compl : forall u k, wf_set u = true -> wf_set k = true -> wf_set (SCompl u k) = true.
  Proof. intros u k Hu Hk. simpl. rewrite Hu, Hk. reflexivity. Qed.

  Lemma helper_ok : forall k u r, wf_set k = true -> wf_set u = true ->
      helper rec k u = (Ok r, []) ->
      wf_set r = true /\ forall p, In_set p r = In_set p u && negb (In_set p k).
  Proof.
    intros k u r Hk Hu H. unfold helper in H.
    destruct u; try (minv; split; [first [reflexivity|apply wf_compl; assumption]|intro p; reflexivity]).
    - (* FiniteSet universe *) minv. simpl in Hu.
      assert (Hf : forall a p, In a l -> npos a =p ppos p -> negb (contains k a) = negb (In_set p k)).
      { intros a p Ha Hp. f_equal. apply contains_In; auto. exact (forallb_In num_ok l a Hu Ha). }
      destruct (filtered_finite_ok _ (fun p => negb (In_set p k)) l x Hu Hf Hm) as [Hx Hs].
      split; [apply finiteset_wf; exact Hx|]. intro p. rewrite finiteset_In. exact (Hs p).
    - (* Union universe *) apply wf_union_inv in Hu. destruct Hu as [Hne Hl].
      apply (map_rec_ok true _ (fun p a => In_set p a && negb (In_set p k))) in H.
      + destruct H as [Hw Hs]. split; [exact Hw|]. intro p. rewrite Hs. apply existsb_and_r.
      + intros a y Hin Hy. apply rec_compl in Hy; auto. eapply forallb_In; eauto.
  Qed.

  Lemma ivl_union_ok : forall s e lo ro o r, wf_set (SInterval s e lo ro) = true -> wf_set o = true ->
      ivl_union rec s e lo ro o = (Ok r, []) ->
      wf_set r = true /\ forall p, In_set p r = In_set p (SInterval s e lo ro) || In_set p o.
  Proof.
    intros s e lo ro o r Hi Ho H. unfold ivl_union in H.
    destruct o; try (by_rec_comm rec_union_comm; fail).
    - apply ivl_union_ivl_ok in H; auto.
    - exact (mk_set2_ok true _ _ _ Hi Ho H).
    - exact (mk_set2_ok true _ _ _ Hi Ho H).
  Qed.

  Lemma ivl_inter_ok : forall s e lo ro o r, wf_set (SInterval s e lo ro) = true -> wf_set o = true ->
      ivl_inter rec s e lo ro o = (Ok r, []) ->
      wf_set r = true /\ forall p, In_set p r = In_set p (SInterval s e lo ro) && In_set p o.
  Proof.
    intros s e lo ro o r Hi Ho H. unfold ivl_inter in H.
    destruct o; try (by_rec_comm rec_inter_comm; fail).
    - apply ivl_inter_numset_ok in H; auto.
    - apply ivl_inter_numset_ok in H; auto.
    - apply ivl_inter_numset_ok in H; auto.
    - minv. split; [apply ivl_inter_ivl_wf; assumption|]. intro p. apply ivl_inter_ivl_In; assumption.
    - exact (mk_set2_ok false _ _ _ Hi Ho H).
    - exact (mk_set2_ok false _ _ _ Hi Ho H).
  Qed.

  Lemma ivl_compl_ok : forall s e lo ro o r, wf_set (SInterval s e lo ro) = true -> wf_set o = true ->
      ivl_compl rec s e lo ro o = (Ok r, []) ->
      wf_set r = true /\ forall p, In_set p r = In_set p o && negb (In_set p (SInterval s e lo ro)).
  Proof.
    intros s e lo ro o r Hi Ho H. unfold ivl_compl in H.
    destruct o; try (apply rec_helper in H; auto; fail).
    rename s0 into os, e0 into oe, lo0 into olo, ro0 into oro.
    destruct (is_empty (ivl_inter_ivl s e lo ro os oe olo oro)) eqn:E.
    - minv. split; [assumption|]. intro p.
      pose proof (ivl_inter_ivl_In s e lo ro os oe olo oro p Hi Ho) as Hx.
      destruct (ivl_inter_ivl s e lo ro os oe olo oro); try discriminate E. simpl in Hx. simpl.
      destruct (in_interval os oe olo oro p), (in_interval s e lo ro p); try reflexivity; discriminate.
    - minv. apply ss_make_ok in Hm.
      pose proof Hi as Hi'. pose proof Ho as Ho'.
      apply wf_interval_inv in Hi'. destruct Hi' as [Hs [He _]].
      apply wf_interval_inv in Ho'. destruct Ho' as [Hos [Hoe _]].
      apply rec_funion in Hk.
      + destruct Hk as [Hw Hsx]. split; [exact Hw|]. intro p. rewrite Hsx.
        rewrite (existsb_same_elems (In_set p) x _ Hm). apply ivl_compl_core; assumption.
      + apply (forallb_same_true wf_set x _ Hm). apply ivl_compl_pieces_wf; assumption.
  Qed.

  Lemma in_numset_contains : forall o a, (o = SIntegers \/ o = SNaturals \/ o = SNaturals0) ->
      in_numset o a = contains o a.
  Proof. intros o a [->|[->| ->]]; reflexivity. Qed.

  (* FiniteSet u Integers / Naturals / Naturals0: the number set, beside the elements outside it if there are any *)
  Lemma fs_union_numset_ok : forall l o r, forallb num_ok l = true ->
      (o = SIntegers \/ o = SNaturals \/ o = SNaturals0) ->
      fs_union rec l o = (Ok r, []) ->
      wf_set r = true /\ forall p, In_set p r = in_finite l p || In_set p o.
  Proof.
    intros l o r Hl Ho H.
    assert (Hx : (c <- nb_ins_all (filter (fun a => negb (in_numset o a)) l) [] ;;
                  match c with [] => ret o | _ => mk_union2 o (finiteset c) end) = (Ok r, []))
      by (destruct Ho as [->|[->| ->]]; exact H).
    assert (Hwo : wf_set o = true) by (destruct Ho as [->|[->| ->]]; reflexivity).
    minv.
    assert (Hf : forall a p, In a l -> npos a =p ppos p -> negb (in_numset o a) = negb (In_set p o)).
    { intros a p Ha Hp. f_equal. rewrite in_numset_contains by exact Ho.
      apply contains_In; auto. exact (forallb_In num_ok l a Hl Ha). }
    destruct (filtered_finite_ok _ (fun p => negb (In_set p o)) l x Hl Hf Hm) as [Hxok Hfil].
    destruct x as [|c cs].
    - apply ret_ok in Hk. subst r. split; [exact Hwo|]. intro p. specialize (Hfil p). simpl in Hfil.
      destruct (in_finite l p), (In_set p o); simpl in *; try reflexivity; discriminate.
    - apply (mk_set2_ok true) in Hk; [|exact Hwo|apply finiteset_wf; exact Hxok].
      destruct Hk as [Hw Hs]. split; [exact Hw|].
      intro p. rewrite Hs. unfold bop. rewrite finiteset_In, Hfil. destruct (in_finite l p), (In_set p o); reflexivity.
  Qed.

  (* FiniteSet u Interval: the elements outside the interval, beside the interval with the endpoints closed
     that are elements *)
  Lemma fs_union_ivl_ok : forall l os oe olo oro r, forallb num_ok l = true ->
      wf_set (SInterval os oe olo oro) = true ->
      fs_union rec l (SInterval os oe olo oro) = (Ok r, []) ->
      wf_set r = true /\ forall p, In_set p r = in_finite l p || in_interval os oe olo oro p.
  Proof.
    intros l os oe olo oro r Hl Ho H. unfold fs_union in H.
    minv. destruct x as [[lf rt] cont].
    destruct (fs_union_ivl_loop_ok os oe olo oro l olo oro [] (lf, rt, cont) Ho Hl eq_refl (fun h => h) (fun h => h) Hm)
      as [Hc [Hlf [Hrt Hsem]]]. simpl in Hc, Hlf, Hrt, Hsem.
    pose proof (wf_interval_inv _ _ _ _ Ho) as [Hos [Hoe Hlt]].
    (* the second operand of the result: the interval itself when the loop has closed no endpoint *)
    set (iv := if Bool.eqb lf olo && Bool.eqb rt oro then SInterval os oe olo oro else interval os oe lf rt).
    assert (Hiv : wf_set iv = true /\ forall p, In_set p iv = in_interval os oe lf rt p).
    { unfold iv. destruct (Bool.eqb lf olo && Bool.eqb rt oro) eqn:E.
      - apply andb_prop in E. destruct E as [E1 E2]. apply eqb_prop in E1. apply eqb_prop in E2. subst lf rt.
        split; [exact Ho|reflexivity].
      - split; [apply interval_wf; assumption|]. intro p. apply interval_In; assumption. }
    destruct Hiv as [Hwiv Hsiv].
    assert (Hk' : match cont with [] => ret iv | _ => mk_union2 (finiteset cont) iv end = (Ok r, [])).
    { unfold iv. destruct cont, (Bool.eqb lf olo && Bool.eqb rt oro); exact Hk. }
    destruct cont as [|c cs].
    - apply ret_ok in Hk'. subst r. split; [exact Hwiv|]. intro p. rewrite Hsiv. exact (Hsem p).
    - apply (mk_set2_ok true) in Hk'; [|exact Hc|exact Hwiv]. destruct Hk' as [Hw Hs]. split; [exact Hw|].
      intro p. rewrite Hs, Hsiv. exact (Hsem p).
  Qed.

  Lemma fs_union_ok : forall l o r, wf_set (SFinite l) = true -> wf_set o = true ->
      fs_union rec l o = (Ok r, []) ->
      wf_set r = true /\ forall p, In_set p r = In_set p (SFinite l) || In_set p o.
  Proof.
    intros l o r Hl Ho H. pose proof Hl as Hl'. simpl in Hl.
    destruct o; try (unfold fs_union in H; by_rec_comm rec_union_comm; fail).
    - (* Reals *) simpl in H. minv. split; [reflexivity|]. intro p. simpl. rewrite orb_true_r. reflexivity.
    - (* Rationals *) simpl in H. minv. split; [reflexivity|]. intro p. simpl. symmetry. apply sub_or'.
      apply in_finite_rationals. exact Hl.
    - apply fs_union_numset_ok; auto.
    - apply fs_union_numset_ok; auto.
    - apply fs_union_numset_ok; auto.
    - apply fs_union_ivl_ok; assumption.
    - (* FiniteSet *) simpl in H. minv. pose proof (nb_ins_all_ok _ _ _ Hm) as Hse. rewrite app_nil_r in Hse. split.
      + apply finiteset_wf. apply (forallb_same_true num_ok x _ Hse). rewrite forallb_app. simpl in Ho. rewrite Hl, Ho. reflexivity.
      + intro p. rewrite finiteset_In, (in_finite_same x _ p Hse), in_finite_app. reflexivity.
    - exact (mk_set2_ok true _ _ _ Hl' Ho H).
    - exact (mk_set2_ok true _ _ _ Hl' Ho H).
  Qed.

  (* FiniteSet n o, where the code keeps the elements that pass the membership test of o *)
  Lemma fs_inter_filter_ok : forall (f : number -> bool) l o r, forallb num_ok l = true -> wf_set o = true ->
      (forall a, contains o a = f a) ->
      (c <- nb_ins_all (filter f l) [] ;; ret (finiteset c)) = (Ok r, []) ->
      wf_set r = true /\ forall p, In_set p r = in_finite l p && In_set p o.
  Proof.
    intros f l o r Hl Hwo Hf Hx. minv.
    assert (Hf' : forall a p, In a l -> npos a =p ppos p -> f a = In_set p o).
    { intros a p Ha Hp. rewrite <- Hf. apply contains_In; auto. exact (forallb_In num_ok l a Hl Ha). }
    destruct (filtered_finite_ok f (fun p => In_set p o) l x Hl Hf' Hm) as [Hxok Hs].
    split; [apply finiteset_wf; exact Hxok|]. intro p. rewrite finiteset_In. exact (Hs p).
  Qed.

  Lemma fs_inter_ok : forall l o r, wf_set (SFinite l) = true -> wf_set o = true ->
      fs_inter rec l o = (Ok r, []) ->
      wf_set r = true /\ forall p, In_set p r = In_set p (SFinite l) && In_set p o.
  Proof.
    intros l o r Hl Ho H. pose proof Hl as Hl'. simpl in Hl. unfold fs_inter in H.
    destruct o; try (by_rec_comm rec_inter_comm; fail).
    - (* Reals *) minv. pose proof (nb_ins_all_ok _ _ _ Hm) as Hse. rewrite app_nil_r in Hse. split.
      + apply finiteset_wf. apply (forallb_same_true num_ok x _ Hse). exact Hl.
      + intro p. rewrite finiteset_In, (in_finite_same x _ p Hse). simpl. rewrite andb_true_r. reflexivity.
    - apply (fs_inter_filter_ok n_is_exact l SRationals); auto.
    - apply (fs_inter_filter_ok (in_numset SIntegers) l SIntegers); auto.
    - apply (fs_inter_filter_ok (in_numset SNaturals) l SNaturals); auto.
    - apply (fs_inter_filter_ok (in_numset SNaturals0) l SNaturals0); auto.
    - apply (fs_inter_filter_ok (ivl_contains s e lo ro) l (SInterval s e lo ro)); auto.
    - apply free_inter2_ok in H; auto.
    - exact (mk_set2_ok false _ _ _ Hl' Ho H).
    - exact (mk_set2_ok false _ _ _ Hl' Ho H).
  Qed.

  (* Interval \ FiniteSet: the walk over the sorted elements, and the piece it leaves up to the end *)
  Lemma fs_compl_ivl_ok : forall l os oe olo oro r, forallb num_ok l = true ->
      wf_set (SInterval os oe olo oro) = true ->
      fs_compl rec l (SInterval os oe olo oro) = (Ok r, []) ->
      wf_set r = true /\ forall p, In_set p r = in_interval os oe olo oro p && negb (in_finite l p).
  Proof.
    intros l os oe olo oro r Hl Ho H. unfold fs_compl in H.
    pose proof (wf_interval_inv _ _ _ _ Ho) as [Hos [Hoe Hlt]].
    destruct (sort_nums_ok l Hl) as [Sse [Ssorted Sok]].
    minv. destruct x as [[[last lopen] ropen] ivs].
    destruct (walk_ok os oe Hos Hoe Hlt (sort_nums l) os olo oro [] _ Sok Ssorted
                (walk_inv_init os oe Hos Hlt (sort_nums l)) Hm) as [W1 [W2 [W3 W4]]].
    simpl in W1, W2, W3, W4.
    revert Hk. destruct (nmax_r_spec last oe W1 Hoe) as [_|N]; [intro Hk|exfalso; apply N; pord]. minv.
    match goal with Hi : ss_ins _ _ = (Ok ?y, []) |- _ => pose proof (ss_ins_ok _ _ _ Hi) as Hse; rename y into ivs' end.
    match goal with Hf : match ivs' with [] => _ | _ => _ end = _ |- _ => rename Hf into Hfin end.
    assert (Hne : ivs' <> []) by (eapply same_elems_cons_ne; eauto).
    destruct ivs' as [|y ys] eqn:Ex0; [congruence|]. rewrite <- Ex0 in *. clear Ex0.
    assert (Hr : r = make_union ivs').
    { destruct ivs'; [congruence|]. apply ret_ok in Hfin. symmetry. exact Hfin. }
    subst r. split.
    - apply make_union_wf; [exact Hne|].
      apply (forallb_same_true wf_set ivs' _ Hse). simpl. rewrite interval_wf; auto.
    - intro p. rewrite make_union_In. rewrite (existsb_same_elems (In_set p) ivs' _ Hse). simpl.
      rewrite interval_In by assumption. rewrite orb_comm, W4. simpl.
      rewrite (in_finite_same _ _ p Sse). reflexivity.
  Qed.

  Lemma fs_compl_ok : forall l o r, wf_set (SFinite l) = true -> wf_set o = true ->
      fs_compl rec l o = (Ok r, []) ->
      wf_set r = true /\ forall p, In_set p r = In_set p o && negb (In_set p (SFinite l)).
  Proof.
    intros l o r Hl Ho H. simpl in Hl.
    destruct o; try (unfold fs_compl in H; apply rec_helper in H; auto; fail).
    - apply fs_compl_ivl_ok; assumption.
    - (* FiniteSet *) unfold fs_compl in H. minv. apply negb_false_iff in Hg. apply andb_prop in Hg. destruct Hg as [S1 S2].
      simpl in Ho.
      match goal with Hi : nb_ins_all _ _ = _ |- _ => pose proof (nb_ins_all_ok _ _ _ Hi) as Hse end.
      rewrite app_nil_r in Hse. split.
      + apply finiteset_wf. apply (forallb_same_true num_ok x _ Hse). apply set_difference_num_ok; assumption.
      + intro p. rewrite finiteset_In, (in_finite_same x _ p Hse). simpl. apply in_finite_difference; assumption.
  Qed.

  Lemma dispatch_sets_ok : forall c r,
      (match c with CBoundary _ | CInterior _ | CClosure _ => False | _ => True end) ->
      dispatch rec c = (Ok r, []) -> call_wf c = true -> wf_set r = true /\ call_spec c r.
  Proof using Hrec.
    intros c r Hnot H Hwf. destruct c; simpl in Hnot; try contradiction; simpl in Hwf; simpl call_spec.
    - (* set_union *) apply andb_prop in Hwf. destruct Hwf as [Ha Ho]. simpl in H. destruct a.
      + minv. split; [assumption|]. intro p. reflexivity.
      + minv. split; [reflexivity|]. intro p. reflexivity.
      + apply reals_union_ok; assumption.
      + apply rationals_union_ok; assumption.
      + apply integers_union_ok; assumption.
      + apply naturals_union_ok; assumption.
      + apply naturals0_union_ok; assumption.
      + apply ivl_union_ok; assumption.
      + apply fs_union_ok; assumption.
      + apply wf_union_inv in Ha. destruct Ha as [Hne Hl].
        apply (op_loop_ok true) in H; auto.
      + apply inter_union_ok; assumption.
      + apply compl_union_ok; assumption.
    - (* set_intersection *) apply andb_prop in Hwf. destruct Hwf as [Ha Ho]. simpl in H. destruct a.
      + minv. split; [reflexivity|]. intro p. reflexivity.
      + minv. split; [assumption|]. intro p. reflexivity.
      + apply reals_inter_ok; assumption.
      + apply rationals_inter_ok; assumption.
      + apply integers_inter_ok; assumption.
      + apply naturals_inter_ok; assumption.
      + apply naturals0_inter_ok; assumption.
      + apply ivl_inter_ok; assumption.
      + apply fs_inter_ok; assumption.
      + apply union_inter_ok; assumption.
      + simpl in Ha. apply (op_loop_ok false) in H; auto.
      + apply compl_inter_ok; assumption.
    - (* set_complement *) apply andb_prop in Hwf. destruct Hwf as [Ha Ho]. simpl in H. destruct a.
      + minv. split; [assumption|]. intro p. simpl. rewrite andb_true_r. reflexivity.
      + minv. split; [reflexivity|]. intro p. simpl. rewrite andb_false_r. reflexivity.
      + apply reals_compl_ok; assumption.
      + apply rationals_compl_ok; assumption.
      + apply integers_compl_ok; assumption.
      + apply naturals_compl_ok; assumption.
      + apply naturals0_compl_ok; assumption.
      + apply ivl_compl_ok; assumption.
      + apply fs_compl_ok; assumption.
      + apply union_compl_ok; assumption.
      + apply inter_compl_ok; assumption.
      + apply compl_compl_ok; assumption.
    - apply free_union_ok; assumption.
    - apply free_inter_ok; assumption.
    - apply andb_prop in Hwf. destruct Hwf as [Ha Ho]. apply helper_ok; assumption.
  Qed.
End WithRec.
