(* C27 proofs, layer 2: the number-level functions of the model (eq, Number::sub sign, min, max, Lt, Le,
   ceiling, floor as the code uses them) against the order of positions. *)
From Coq Require Import QArith Lia.
From SE Require Import C27.SetSpec C27.SetOrder.

Lemma Zcmp_compare : forall a b, Zcmp a b = match (a ?= b)%Z with Eq => 0 | Lt => -1 | Gt => 1 end%Z.
Proof.
  intros a b. unfold Zcmp.
  destruct (Z.compare_spec a b); subst.
  - rewrite Z.eqb_refl; reflexivity.
  - destruct (Z.eqb_spec a b); [lia|]. destruct (Z.ltb_spec a b); [reflexivity|lia].
  - destruct (Z.eqb_spec a b); [lia|]. destruct (Z.ltb_spec a b); [lia|reflexivity].
Qed.

Lemma Qcmp_pair_compare : forall n1 d1 n2 d2,
    Qcmp_pair n1 d1 n2 d2 = match (n1 # d1 ?= n2 # d2)%Q with Eq => 0 | Lt => -1 | Gt => 1 end%Z.
Proof. intros. unfold Qcmp_pair. rewrite Zcmp_compare. reflexivity. Qed.

Lemma Qeq_pair_compare : forall n1 d1 n2 d2,
    Qeq_pair n1 d1 n2 d2 = match (n1 # d1 ?= n2 # d2)%Q with Eq => true | _ => false end.
Proof.
  intros. unfold Qeq_pair, Qcompare; simpl.
  destruct (Z.compare_spec (n1 * Zpos d2) (n2 * Zpos d1)); destruct (Z.eqb_spec (n1 * Zpos d2) (n2 * Zpos d1)); try reflexivity; lia.
Qed.

(* a rational in lowest terms with denominator > 1 is no integer *)
Lemma rat_not_int : forall n d z,
    Z.gcd n (Zpos d) = 1%Z -> (1 < Zpos d)%Z -> (n # d ?= inject_Z z)%Q <> Eq.
Proof.
  intros n d z Hg Hd H. apply Qcmp_Eq in H. unfold Qeq in H; simpl in H.
  assert (Hdiv : (Zpos d | n)%Z) by (exists z; lia).
  assert (Hdd : (Zpos d | Zpos d)%Z) by (exists 1%Z; lia).
  pose proof (Z.gcd_greatest n (Zpos d) (Zpos d) Hdiv Hdd) as Hgd.
  rewrite Hg in Hgd. destruct Hgd as [k Hk]. 
  assert (k = 1 \/ k = -1)%Z by nia. nia.
Qed.

(* the classes a [num_ok] number can have: Integer, Rational, Infty *)
Ltac destr_num a :=
  let z := fresh "z" in let n := fresh "n" in let d := fresh "d" in let dir := fresh "dir" in
  destruct a as [z|n d|? ? ? ?|?|? ?|dir|]; try discriminate.

Lemma num_ok_inf : forall d, num_ok (NInf d) = true -> d = 1%Z \/ d = (-1)%Z.
Proof. intros d H; simpl in H. destruct (Z.eqb_spec d 1); [auto|]. destruct (Z.eqb_spec d (-1)); [auto|discriminate]. Qed.

(* an infinite operand: +oo or -oo, and a goal made of comparisons with it is then decided by evaluation *)
Ltac inf_cases Ha Hb :=
  try (apply num_ok_inf in Ha; destruct Ha; subst);
  try (apply num_ok_inf in Hb; destruct Hb; subst);
  try (simpl; repeat split; intros; try discriminate; reflexivity).

Lemma num_ok_rat : forall n d, num_ok (NRat n d) = true -> Z.gcd n (Zpos d) = 1%Z /\ (1 < Zpos d)%Z.
Proof.
  intros n d H; simpl in H. apply andb_prop in H; destruct H as [H1 H2].
  split; [apply Z.eqb_eq; exact H1 | apply Z.ltb_lt; exact H2].
Qed.

(* eq() on numbers = equality of positions *)
Lemma num_eqb_pos : forall a b, num_ok a = true -> num_ok b = true ->
    (num_eqb a b = true <-> npos a =p npos b).
Proof.
  intros a b Ha Hb. rewrite PosO.eq_iff.
  destr_num a; destr_num b; inf_cases Ha Hb; simpl.
  - (* int int *) unfold Qcompare; simpl. rewrite !Z.mul_1_r.
    rewrite Z.eqb_eq. split; [intros ->; rewrite Z.compare_refl; reflexivity|].
    destruct (Z.compare_spec z z0); congruence.
  - (* int rat *) apply num_ok_rat in Hb. destruct Hb as [Hg Hd].
    split; [discriminate|]. intro H.
    exfalso. apply (rat_not_int n d z Hg Hd).
    rewrite <- Qcompare_antisym.
    destruct (inject_Z z ?= n # d)%Q; simpl in *; try discriminate. reflexivity.
  - (* rat int *) apply num_ok_rat in Ha. destruct Ha as [Hg Hd].
    split; [discriminate|]. intro H.
    exfalso. apply (rat_not_int n d z Hg Hd).
    destruct (n # d ?= inject_Z z)%Q; simpl in *; try discriminate. reflexivity.
  - (* rat rat *) rewrite Qeq_pair_compare.
    destruct (n # d ?= n0 # d0)%Q; simpl; split; intros; try discriminate; try reflexivity.
    all: rewrite Z.compare_refl; reflexivity.
Qed.

Lemma num_eqb_spec : forall a b, num_ok a = true -> num_ok b = true ->
    reflect (npos a =p npos b) (num_eqb a b).
Proof. intros a b Ha Hb. apply iff_reflect. symmetry. apply num_eqb_pos; assumption. Qed.
Lemma num_eqb_refl' : forall a, num_ok a = true -> num_eqb a a = true.
Proof. intros a Ha. apply num_eqb_pos; [assumption ..|pord]. Qed.

(* numbers of the fragment are canonical: eq() is identity *)
Lemma num_eqb_eq : forall a b, num_ok a = true -> num_ok b = true -> num_eqb a b = true -> a = b.
Proof.
  intros a b Ha Hb H. destr_num a; destr_num b; simpl in H; try discriminate.
  - apply Z.eqb_eq in H. subst; reflexivity.
  - apply num_ok_rat in Ha. apply num_ok_rat in Hb. destruct Ha as [Hg1 Hd1]. destruct Hb as [Hg2 Hd2].
    unfold Qeq_pair in H. apply Z.eqb_eq in H.
    assert (D1 : (Zpos d | Zpos d0)%Z).
    { apply Z.gauss with n; [exists n0; exact H|]. rewrite Z.gcd_comm. exact Hg1. }
    assert (D2 : (Zpos d0 | Zpos d)%Z).
    { apply Z.gauss with n0; [exists n; symmetry; exact H|]. rewrite Z.gcd_comm. exact Hg2. }
    assert (Zpos d = Zpos d0) by (apply Z.divide_antisym_nonneg; [lia|lia|exact D1|exact D2]).
    assert (d = d0) by congruence. subst. f_equal. nia.
  - apply Z.eqb_eq in H. subst; reflexivity.
Qed.

Lemma same_pos_eq : forall a b, num_ok a = true -> num_ok b = true -> npos a =p npos b -> a = b.
Proof. intros a b Ha Hb H. apply num_eqb_eq; auto. apply num_eqb_pos; auto. Qed.

(* the sign of Number::sub as read by is_positive / is_negative *)
Lemma sub_sign_pos : forall a b, num_ok a = true -> num_ok b = true ->
    (sub_sign a b = 1%Z <-> npos b <p npos a) /\ (sub_sign a b = (-1)%Z <-> npos a <p npos b).
Proof.
  intros a b Ha Hb. rewrite !PosO.lt_iff.
  destr_num a; destr_num b; inf_cases Ha Hb; simpl.
  - rewrite Zcmp_compare. unfold Qcompare; simpl. rewrite !Z.mul_1_r.
    rewrite (Z.compare_antisym z z0).
    destruct (z ?= z0)%Z; simpl; split; split; intros; try discriminate; try reflexivity.
  - rewrite Qcmp_pair_compare. rewrite <- (Qcompare_antisym (inject_Z z) (n # d)).
    change (z # 1) with (inject_Z z).
    destruct (inject_Z z ?= n # d)%Q; simpl; split; split; intros; try discriminate; try reflexivity.
  - rewrite Qcmp_pair_compare. rewrite <- (Qcompare_antisym (n # d) (inject_Z z)).
    change (z # 1) with (inject_Z z).
    destruct (n # d ?= inject_Z z)%Q; simpl; split; split; intros; try discriminate; try reflexivity.
  - rewrite Qcmp_pair_compare. rewrite <- (Qcompare_antisym (n # d) (n0 # d0)).
    destruct (n # d ?= n0 # d0)%Q; simpl; split; split; intros; try discriminate; try reflexivity.
Qed.

Lemma is_pinf_pos : forall b, num_ok b = true -> (is_pinf b = true <-> npos b =p PPos).
Proof.
  intros b Hb. unfold is_pinf. rewrite (num_eqb_pos b (NInf 1) Hb eq_refl). simpl. tauto.
Qed.
Lemma is_ninf_pos : forall b, num_ok b = true -> (is_ninf b = true <-> npos b =p PNeg).
Proof.
  intros b Hb. unfold is_ninf. rewrite (num_eqb_pos b (NInf (-1)) Hb eq_refl). simpl. tauto.
Qed.

Lemma pos_top : forall x, x <=p PPos.
Proof. intros [| |]; apply PosO.le_iff; simpl; discriminate. Qed.
Lemma pos_bot : forall x, PNeg <=p x.
Proof. intros [| |]; apply PosO.le_iff; simpl; discriminate. Qed.

(* min({a, b}): one of the two arguments, the smaller position *)
Lemma nmin_spec : forall a b, num_ok a = true -> num_ok b = true ->
    (npos a <=p npos b /\ nmin a b = a) \/ (npos b <p npos a /\ nmin a b = b).
Proof.
  intros a b Ha Hb. unfold nmin.
  destruct (is_pinf b) eqn:Hp.
  - left. split; [|reflexivity]. apply is_pinf_pos in Hp; auto. pose proof (pos_top (npos a)). pord.
  - destruct (is_ninf b) eqn:Hn.
    + apply is_ninf_pos in Hn; auto. pose proof (pos_bot (npos a)).
      destruct (PosO.lt_total (npos b) (npos a)) as [H1|[H1|H1]].
      * right; auto.
      * (* a is -oo as well: the same number *)
        left. split; [pord|]. symmetry. apply same_pos_eq; [exact Ha|exact Hb|pord].
      * exfalso. pord.
    + destruct (sub_sign_pos a b Ha Hb) as [H1 _].
      destruct (Z.eqb_spec (sub_sign a b) 1).
      * right; split; [apply H1; assumption|reflexivity].
      * left; split; [|reflexivity].
        destruct (PosO.lt_total (npos b) (npos a)) as [H2|[H2|H2]]; try pord.
        exfalso; apply n; apply H1; exact H2.
Qed.

Lemma nmax_spec : forall a b, num_ok a = true -> num_ok b = true ->
    (npos b <=p npos a /\ nmax a b = a) \/ (npos a <p npos b /\ nmax a b = b).
Proof.
  intros a b Ha Hb. unfold nmax.
  destruct (is_pinf b) eqn:Hp.
  - apply is_pinf_pos in Hp; auto. pose proof (pos_top (npos a)).
    destruct (PosO.lt_total (npos a) (npos b)) as [H1|[H1|H1]].
    + right; auto.
    + left. split; [pord|]. symmetry. apply same_pos_eq; [exact Ha|exact Hb|pord].
    + exfalso; pord.
  - destruct (is_ninf b) eqn:Hn.
    + left. split; [|reflexivity]. apply is_ninf_pos in Hn; auto. pose proof (pos_bot (npos a)). pord.
    + destruct (sub_sign_pos b a Hb Ha) as [H1 _].
      destruct (Z.eqb_spec (sub_sign b a) 1).
      * right; split; [apply H1; assumption|reflexivity].
      * left; split; [|reflexivity].
        destruct (PosO.lt_total (npos a) (npos b)) as [H2|[H2|H2]]; try pord.
        exfalso; apply n; apply H1; exact H2.
Qed.

Lemma nmin_ok : forall a b, num_ok a = true -> num_ok b = true -> num_ok (nmin a b) = true.
Proof. intros a b Ha Hb. destruct (nmin_spec a b Ha Hb) as [[_ ->]|[_ ->]]; assumption. Qed.
Lemma nmax_ok : forall a b, num_ok a = true -> num_ok b = true -> num_ok (nmax a b) = true.
Proof. intros a b Ha Hb. destruct (nmax_spec a b Ha Hb) as [[_ ->]|[_ ->]]; assumption. Qed.

(* the tests the code writes with min / max *)
Lemma nmin_l_spec : forall a b, num_ok a = true -> num_ok b = true ->
    reflect (npos a <=p npos b) (num_eqb (nmin a b) a).
Proof.
  intros a b Ha Hb. apply iff_reflect.
  destruct (nmin_spec a b Ha Hb) as [[H ->]|[H ->]]; rewrite num_eqb_pos by assumption; split; intros; pord.
Qed.
Lemma nmin_r_spec : forall a b, num_ok a = true -> num_ok b = true ->
    reflect (npos b <=p npos a) (num_eqb (nmin a b) b).
Proof.
  intros a b Ha Hb. apply iff_reflect.
  destruct (nmin_spec a b Ha Hb) as [[H ->]|[H ->]]; rewrite num_eqb_pos by assumption; split; intros; pord.
Qed.
Lemma nmax_l_spec : forall a b, num_ok a = true -> num_ok b = true ->
    reflect (npos b <=p npos a) (num_eqb (nmax a b) a).
Proof.
  intros a b Ha Hb. apply iff_reflect.
  destruct (nmax_spec a b Ha Hb) as [[H ->]|[H ->]]; rewrite num_eqb_pos by assumption; split; intros; pord.
Qed.
Lemma nmax_r_spec : forall a b, num_ok a = true -> num_ok b = true ->
    reflect (npos a <=p npos b) (num_eqb (nmax a b) b).
Proof.
  intros a b Ha Hb. apply iff_reflect.
  destruct (nmax_spec a b Ha Hb) as [[H ->]|[H ->]]; rewrite num_eqb_pos by assumption; split; intros; pord.
Qed.

Lemma npos_nmin : forall a b, num_ok a = true -> num_ok b = true ->
    (npos (nmin a b) <=p npos a) /\ (npos (nmin a b) <=p npos b) /\
    (npos (nmin a b) =p npos a \/ npos (nmin a b) =p npos b).
Proof.
  intros a b Ha Hb. destruct (nmin_spec a b Ha Hb) as [[H ->]|[H ->]]; (split; [|split]); try pord.
  - left; pord.
  - right; pord.
Qed.
Lemma npos_nmax : forall a b, num_ok a = true -> num_ok b = true ->
    (npos a <=p npos (nmax a b)) /\ (npos b <=p npos (nmax a b)) /\
    (npos (nmax a b) =p npos a \/ npos (nmax a b) =p npos b).
Proof.
  intros a b Ha Hb. destruct (nmax_spec a b Ha Hb) as [[H ->]|[H ->]]; (split; [|split]); try pord.
  - left; pord.
  - right; pord.
Qed.

(* Lt / Le *)
Lemma n_lt_pos : forall a b, num_ok a = true -> num_ok b = true -> (n_lt a b = true <-> npos a <p npos b).
Proof.
  intros a b Ha Hb. unfold n_lt.
  destruct (num_eqb_spec a b Ha Hb) as [He|He].
  - split; intros; [discriminate|pord].
  - destruct (sub_sign_pos a b Ha Hb) as [_ H]. rewrite Z.eqb_eq. exact H.
Qed.
Lemma n_le_pos : forall a b, num_ok a = true -> num_ok b = true -> (n_le a b = true <-> npos a <=p npos b).
Proof.
  intros a b Ha Hb. unfold n_le.
  destruct (num_eqb_spec a b Ha Hb) as [He|He].
  - split; intros; [pord|reflexivity].
  - destruct (sub_sign_pos a b Ha Hb) as [_ H]. rewrite Z.eqb_eq, H. split; intros; pord.
Qed.

(* the strict order used by wf_set *)
Lemma x_lt_pos : forall a b, num_ok a = true -> num_ok b = true -> (x_lt a b = true <-> npos a <p npos b).
Proof.
  intros a b Ha Hb. rewrite !PosO.lt_iff.
  destr_num a; destr_num b; inf_cases Ha Hb; simpl.
  - destruct (inject_Z z ?= inject_Z z0)%Q; split; intros; try discriminate; reflexivity.
  - destruct (inject_Z z ?= n # d)%Q; split; intros; try discriminate; reflexivity.
  - destruct (n # d ?= inject_Z z)%Q; split; intros; try discriminate; reflexivity.
  - destruct (n # d ?= n0 # d0)%Q; split; intros; try discriminate; reflexivity.
Qed.
