(* C27 proofs, layer 5b: Interval n Integers / Naturals / Naturals0 (element-by-element enumeration
   between ceiling(start) and floor(end)). *)
From Coq Require Import QArith Lia.
From SE Require Import C27.SetSpec C27.SetOrder C27.SetNum C27.SetCont C27.SetIvl C27.SetFin.
Local Open Scope m_scope.

Definition ipos (k : Z) : pos := PFin (inject_Z k) 0.
Lemma npos_int : forall k, npos (NInt k) = ipos k.
Proof. reflexivity. Qed.

Lemma ipos_cmp : forall a b, pos_cmp (ipos a) (ipos b) = (a ?= b)%Z.
Proof.
  intros a b. unfold ipos, pos_cmp. unfold Qcompare; simpl. rewrite !Z.mul_1_r.
  destruct (a ?= b)%Z; reflexivity.
Qed.
Lemma ipos_lt : forall a b, ipos a <p ipos b <-> (a < b)%Z.
Proof. intros. rewrite PosO.lt_iff, ipos_cmp. apply Z.compare_lt_iff. Qed.
Lemma ipos_le : forall a b, ipos a <=p ipos b <-> (a <= b)%Z.
Proof. intros. rewrite PosO.le_iff, ipos_cmp. reflexivity. Qed.
Lemma ipos_eq : forall a b, ipos a =p ipos b <-> a = b.
Proof. intros. rewrite PosO.eq_iff, ipos_cmp. apply Z.compare_eq_iff. Qed.

(* position of a rational n/d relative to an integer k *)
Lemma rat_ipos_cmp : forall n d k, pos_cmp (PFin (n # d) 0) (ipos k) = (n ?= k * Zpos d)%Z.
Proof.
  intros n d k. unfold ipos, pos_cmp. unfold Qcompare; simpl. rewrite Z.mul_1_r.
  destruct (n ?= k * Zpos d)%Z; reflexivity.
Qed.

(* the integer points *)
Lemma int_point : forall p, in_integers p = true -> exists k, ipos k =p ppos p.
Proof.
  intros [q|q a i] H; simpl in H; [|discriminate].
  unfold q_is_int in H. apply Z.eqb_eq in H. destruct q as [n d]; simpl in H.
  exists (n / Zpos d)%Z. apply PosO.eq_iff. unfold ipos; simpl. unfold Qcompare; simpl.
  rewrite Z.mul_1_r. replace (n / Zpos d * Zpos d)%Z with n by (pose proof (Z_div_mod_eq_full n (Zpos d)); lia).
  rewrite Z.compare_refl. reflexivity.
Qed.
Lemma at_int_point : forall k p, ipos k =p ppos p ->
    in_integers p = true /\ in_naturals p = (0 <? k)%Z /\ in_naturals0 p = (0 <=? k)%Z.
Proof.
  intros k p H. destruct (at_num_point (NInt k) p eq_refl H) as [_ [E1 [E2 E3]]]. auto.
Qed.

(* a goal made of the integer tests [<?], [=?], [<=?]: splits on each, the rest is linear arithmetic *)
Ltac zb :=
  repeat (match goal with |- context [(?a <? ?b)%Z] => destruct (Z.ltb_spec a b) end; cbn [andb orb negb]);
  repeat (match goal with |- context [(?a =? ?b)%Z] => destruct (Z.eqb_spec a b) end; cbn [andb orb negb]);
  repeat (match goal with |- context [(?a <=? ?b)%Z] => destruct (Z.leb_spec a b) end; cbn [andb orb negb]);
  try reflexivity; try (exfalso; lia).

Lemma in_finite_int_range : forall n F k p, ipos k =p ppos p ->
    in_finite (int_range n F) p = (F <=? k)%Z && (k <? F + Z.of_nat n)%Z.
Proof.
  induction n as [|n IH]; intros F k p Hk.
  - change (in_finite (int_range 0 F) p) with false. change (Z.of_nat 0) with 0%Z. zb.
  - cbn [int_range]. rewrite in_finite_cons'. rewrite (IH (F + 1)%Z k p Hk).
    destruct (at_pos (NInt F) p) eqn:Ea.
    + apply at_pos_iff in Ea. rewrite npos_int in Ea. assert (F = k) by (apply ipos_eq; pord). subst.
      cbn [orb]. zb.
    + assert (F <> k).
      { intro; subst. assert (at_pos (NInt k) p = true) by (apply at_pos_iff; rewrite npos_int; exact Hk). congruence. }
      cbn [orb]. zb.
Qed.
Lemma in_finite_int_range_only : forall n F p, in_finite (int_range n F) p = true -> exists k, ipos k =p ppos p.
Proof.
  induction n as [|n IH]; intros F p H; [discriminate|].
  cbn [int_range] in H. rewrite in_finite_cons' in H. apply orb_prop in H. destruct H as [H|H].
  - exists F. apply at_pos_iff in H. exact H.
  - eapply IH; eauto.
Qed.
Lemma int_range_ok : forall n F, forallb num_ok (int_range n F) = true.
Proof. induction n; intro F; simpl; auto. Qed.

Lemma in_interval_at_int : forall s e lo ro k p, ipos k =p ppos p ->
    in_interval s e lo ro p = after (npos s) lo (ipos k) && before (npos e) ro (ipos k).
Proof.
  intros s e lo ro k p H. rewrite in_interval_rays.
  rewrite (ray_pos_eq true _ _ _ (ipos k)), (ray_pos_eq false _ _ _ (ipos k)) by pord. reflexivity.
Qed.

(* the integers after a finite start, as the code finds them: from its ceiling, or from a larger first
   candidate, plus one when that candidate is the start and the start is open *)
Lemma after_ceil : forall s lo, num_ok s = true -> is_infinite s = false ->
    exists F0, n_ceil s = NInt F0 /\
    forall k, (after (npos s) lo (ipos k) = true -> (F0 <= k)%Z) /\
    forall F1, (F0 <= F1)%Z ->
      ((if num_eqb (NInt F1) s && lo then F1 + 1 else F1) <=? k)%Z
      = after (npos s) lo (ipos k) && (F1 <=? k)%Z.
Proof.
  intros s lo Hs Hi. unfold ray. destr_num s.
  - exists z. split; [reflexivity|]. intro k. rewrite npos_int, ipos_cmp. cbn [num_eqb].
    destruct (Z.compare_spec z k); (split; [try discriminate; lia|intros F1 HF]); destruct lo; zb.
  - exists (- (- n / Zpos d))%Z. split; [reflexivity|]. intro k.
    apply num_ok_rat in Hs. destruct Hs as [Hg Hd].
    change (npos (NRat n d)) with (PFin (n # d) 0). rewrite rat_ipos_cmp. cbn [num_eqb andb].
    assert (Hpos : (0 < Zpos d)%Z) by lia.
    destruct (Z.compare_spec n (k * Zpos d)) as [E|E|E].
    + exfalso. apply (rat_not_int n d k Hg Hd). apply Qcmp_Eq. unfold Qeq; simpl. lia.
    + assert ((- k) <= - n / Zpos d)%Z by (apply Z.div_le_lower_bound; lia).
      split; [lia|reflexivity].
    + assert (- n / Zpos d < - k)%Z by (apply Z.div_lt_upper_bound; lia).
      split; [discriminate|]. intros F1 HF. zb.
Qed.
(* the integers before a finite end: up to its floor, minus one when the floor is the end and the end is open *)
Lemma before_floor : forall e ro, num_ok e = true -> is_infinite e = false ->
    exists L0, n_floor e = NInt L0 /\
    forall k, (k <=? (if num_eqb (NInt L0) e && ro then L0 - 1 else L0))%Z = before (npos e) ro (ipos k).
Proof.
  intros e ro He Hi. unfold ray. destr_num e.
  - exists z. split; [reflexivity|]. intro k. rewrite npos_int, ipos_cmp. cbn [num_eqb].
    rewrite Z.eqb_refl. destruct (Z.compare_spec z k); destruct ro; cbn [andb negb]; zb.
  - exists (n / Zpos d)%Z. split; [reflexivity|]. intro k.
    apply num_ok_rat in He. destruct He as [Hg Hd].
    change (npos (NRat n d)) with (PFin (n # d) 0). rewrite rat_ipos_cmp. cbn [num_eqb andb].
    assert (Hpos : (0 < Zpos d)%Z) by lia.
    destruct (Z.compare_spec n (k * Zpos d)) as [E|E|E].
    + exfalso. apply (rat_not_int n d k Hg Hd). apply Qcmp_Eq. unfold Qeq; simpl. lia.
    + assert (n / Zpos d < k)%Z by (apply Z.div_lt_upper_bound; lia). zb.
    + assert (k <= n / Zpos d)%Z by (apply Z.div_le_lower_bound; lia). zb.
Qed.

Lemma numset_integers : forall o p, (o = SIntegers \/ o = SNaturals \/ o = SNaturals0) ->
    in_integers p = false -> In_set p o = false.
Proof.
  intros o p [->|[->| ->]]; cbn [In_set]; destruct (numset_chain p); intro H; reflexivity || discriminate H.
Qed.

Lemma ivl_inter_numset_ok : forall s e lo ro o r,
    wf_set (SInterval s e lo ro) = true ->
    (o = SIntegers \/ o = SNaturals \/ o = SNaturals0) ->
    ivl_inter_numset s e lo ro o = (Ok r, []) ->
    wf_set r = true /\ forall p, In_set p r = in_interval s e lo ro p && In_set p o.
Proof.
  intros s e lo ro o r Hwf Ho H. pose proof Hwf as Hwf'.
  apply wf_interval_inv in Hwf. destruct Hwf as [Hs [He Hse]].
  unfold ivl_inter_numset in H.
  destruct (is_infinite s || is_infinite e) eqn:Einf.
  { apply (mk_set2_ok false) in H; [exact H|exact Hwf'|destruct Ho as [->|[->| ->]]; reflexivity]. }
  apply orb_false_elim in Einf. destruct Einf as [Eis Eie].
  destruct (after_ceil s lo Hs Eis) as [F0 [HF0 HF]]. destruct (before_floor e ro He Eie) as [L0 [HL0 HL]].
  rewrite HF0, HL0 in H.
  (* the first candidate is moved up to the least member of Naturals / Naturals0 *)
  set (F1 := if is_naturals o && negb (0 <? F0)%Z then 1%Z else if is_naturals0 o && (F0 <? 0)%Z then 0%Z else F0) in *.
  set (F2 := if num_eqb (NInt F1) s && lo then (F1 + 1)%Z else F1) in *.
  set (L2 := if num_eqb (NInt L0) e && ro then (L0 - 1)%Z else L0) in *.
  assert (HF1 : (F0 <= F1)%Z) by (unfold F1; destruct (is_naturals o), (is_naturals0 o); zb; lia).
  (* the interval of integers the code enumerates, against the specification, at an integer k *)
  assert (Hcore : forall k p, ipos k =p ppos p ->
            (F2 <=? k)%Z && (k <=? L2)%Z = in_interval s e lo ro p && In_set p o).
  { intros k p Hk. rewrite (in_interval_at_int s e lo ro k p Hk).
    destruct (HF k) as [FA FB]. unfold F2. rewrite (FB F1 HF1), (HL k). unfold F1.
    destruct (at_int_point k p Hk) as [A1 [A2 A3]].
    destruct Ho as [->|[->| ->]]; cbn [In_set is_naturals is_naturals0 andb]; rewrite ?A1, ?A2, ?A3;
      destruct (after (npos s) lo (ipos k)), (before (npos e) ro (ipos k)); try specialize (FA eq_refl); zb. }
  destruct (L2 <? F2)%Z eqn:Elt.
  { (* no integer between the bounds *)
    minv. split; [reflexivity|]. intro p. simpl.
    destruct (in_integers p) eqn:Ei.
    - destruct (int_point p Ei) as [k Hk]. rewrite <- (Hcore k p Hk). apply Z.ltb_lt in Elt. zb.
    - rewrite (numset_integers o p Ho Ei). symmetry. apply andb_false_r. }
  destruct (ENUM_LIMIT <? L2 - F2)%Z; [minv|].
  minv. pose proof (nb_make_ok _ _ Hm) as Hsx. split.
  - apply finiteset_wf. apply (forallb_same_true num_ok x _ Hsx). apply int_range_ok.
  - intro p. rewrite finiteset_In, (in_finite_same x _ p Hsx).
    apply Z.ltb_ge in Elt.
    destruct (in_integers p) eqn:Ei.
    + destruct (int_point p Ei) as [k Hk]. rewrite <- (Hcore k p Hk).
      rewrite (in_finite_int_range _ F2 k p Hk). rewrite Z2Nat.id by lia. zb.
    + rewrite (numset_integers o p Ho Ei), andb_false_r.
      destruct (in_finite (int_range (Z.to_nat (L2 - F2 + 1)) F2) p) eqn:E; [|reflexivity].
      apply in_finite_int_range_only in E. destruct E as [k Hk].
      destruct (at_int_point k p Hk) as [A _]. congruence.
Qed.
