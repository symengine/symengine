(* C27 proofs, layer 5d: FiniteSet::set_complement(Interval) -- the walk over the numerically sorted
   copy of the container that cuts the interval at every element. *)
From Coq Require Import QArith Btauto Sorting.Sorted.
From SE Require Import C27.SetSpec C27.SetOrder C27.SetNum C27.SetCont C27.SetIvl C27.SetFin.
Local Open Scope m_scope.

Definition ple_num (a b : number) : Prop := npos a <=p npos b.

Lemma sort_insert_elems : forall x l, same_elems (sort_insert x l) (x :: l).
Proof.
  intros x l. induction l as [|y t IH]; simpl.
  - intro z; tauto.
  - destruct (n_lt x y).
    + intro z; tauto.
    + intro z. simpl. rewrite (IH z). simpl. tauto.
Qed.

Lemma sort_insert_sorted : forall x l, num_ok x = true -> forallb num_ok l = true ->
    StronglySorted ple_num l -> StronglySorted ple_num (sort_insert x l).
Proof.
  intros x l Hx Hl Hs. induction Hs as [|y t Ht IH Hy]; simpl.
  - constructor; constructor.
  - simpl in Hl. apply andb_prop in Hl. destruct Hl as [Hyok Htok].
    destruct (n_lt x y) eqn:E.
    + apply n_lt_pos in E; auto. constructor; [constructor; assumption|].
      constructor; [unfold ple_num; pord|].
      rewrite Forall_forall in *. intros z Hz. specialize (Hy z Hz). unfold ple_num in *. pord.
    + constructor; [apply IH; assumption|].
      assert (Hyx : npos y <=p npos x).
      { destruct (PosO.lt_total (npos x) (npos y)) as [H|[H|H]]; try pord.
        apply n_lt_pos in H; auto. congruence. }
      rewrite Forall_forall in *. intros z Hz. apply sort_insert_elems in Hz. destruct Hz as [<-|Hz].
      * exact Hyx.
      * apply Hy; assumption.
Qed.

Lemma sort_insert_ok : forall x l, num_ok x = true -> forallb num_ok l = true -> forallb num_ok (sort_insert x l) = true.
Proof.
  intros x l Hx Hl. apply (forallb_same_true num_ok _ (x :: l) (sort_insert_elems x l)). simpl. rewrite Hx, Hl. reflexivity.
Qed.

Lemma sort_nums_gen : forall l acc, forallb num_ok l = true -> forallb num_ok acc = true ->
    StronglySorted ple_num acc ->
    let r := fold_left (fun acc x => sort_insert x acc) l acc in
    same_elems r (l ++ acc) /\ StronglySorted ple_num r /\ forallb num_ok r = true.
Proof.
  induction l as [|x t IH]; intros acc Hl Hacc Hs; simpl.
  - split; [intro z; tauto|split; auto].
  - simpl in Hl. apply andb_prop in Hl. destruct Hl as [Hx Ht].
    destruct (IH (sort_insert x acc) Ht (sort_insert_ok x acc Hx Hacc) (sort_insert_sorted x acc Hx Hacc Hs)) as [I1 [I2 I3]].
    split; [|split; auto].
    intro z. rewrite (I1 z). rewrite in_app_iff. rewrite (sort_insert_elems x acc z). simpl. rewrite in_app_iff. tauto.
Qed.

Lemma sort_nums_ok : forall l, forallb num_ok l = true ->
    same_elems (sort_nums l) l /\ StronglySorted ple_num (sort_nums l) /\ forallb num_ok (sort_nums l) = true.
Proof.
  intros l Hl. destruct (sort_nums_gen l [] Hl eq_refl (SSorted_nil _)) as [I1 [I2 I3]].
  unfold sort_nums. split; [|split; auto]. intro z. rewrite (I1 z). rewrite app_nil_r. tauto.
Qed.

Section Walk.
  Variables os oe : number.
  Hypothesis Hos : num_ok os = true.
  Hypothesis Hoe : num_ok oe = true.
  Hypothesis Hlt : npos os <p npos oe.

  (* what is known about the state (last, intervals so far) *)
  Definition walk_inv (L : list number) (last : number) (ivs : list sv) : Prop :=
    num_ok last = true /\ npos os <=p npos last /\ npos last <p npos oe /\
    forallb wf_set ivs = true /\
    (forall p, existsb (In_set p) ivs = true -> npos os <=p ppos p /\ ppos p <p npos last) /\
    (npos last =p npos os \/ forall a, In a L -> npos last <=p npos a).

  Lemma walk_inv_init : forall L, walk_inv L os [].
  Proof using Hos Hlt.
    intro L. split; [exact Hos|]. split; [pord|]. split; [exact Hlt|]. split; [reflexivity|].
    split; [intros p Hp; discriminate|left; pord].
  Qed.

  (* an element at or below the start is passed with the state unchanged *)
  Lemma walk_inv_skip : forall a t last ivs, walk_inv (a :: t) last ivs -> npos last =p npos os -> walk_inv t last ivs.
  Proof.
    intros a t last ivs [Hlast [Hol [Hle [Hwf [Hbelow _]]]]] Hlo.
    exact (conj Hlast (conj Hol (conj Hle (conj Hwf (conj Hbelow (or_introl Hlo)))))).
  Qed.

  (* an element a strictly inside: the piece from the last element up to a joins the intervals, a is the last *)
  Lemma walk_inv_cut : forall a t last lopen ivs x,
      num_ok a = true -> walk_inv (a :: t) last ivs -> ~ npos a <=p npos os -> ~ npos oe <=p npos a ->
      (forall b, In b t -> npos a <=p npos b) ->
      ss_ins (interval last a lopen true) ivs = (Ok x, []) -> walk_inv t a x.
  Proof using Hos.
    intros a t last lopen ivs x Ha [Hlast [Hol [Hle [Hwf [Hbelow Hsorted]]]]] E1 E2 Hall Hm.
    assert (Hla : npos last <=p npos a).
    { destruct Hsorted as [Hs|Hs]; [pord|apply Hs; left; reflexivity]. }
    pose proof (ss_ins_ok _ _ _ Hm) as Hse.
    split; [exact Ha|]. split; [pord|]. split; [pord|]. split.
    - apply (forallb_same_true wf_set x _ Hse). simpl. rewrite interval_wf; auto.
    - split; [|right; exact Hall].
      intros p Hp. rewrite (existsb_same_elems (In_set p) x _ Hse) in Hp. simpl in Hp.
      apply orb_prop in Hp. destruct Hp as [Hp|Hp]; [|destruct (Hbelow p Hp); split; pord].
      rewrite interval_In, in_interval_rays in Hp by assumption.
      revert Hp. unfold ray. cmp_cases; simpl; intro Hp; try discriminate;
        try (destruct lopen; simpl in Hp; discriminate); split; pord.
  Qed.

  Lemma walk_ok : forall L last lopen ropen ivs st,
      forallb num_ok L = true -> StronglySorted ple_num L -> walk_inv L last ivs ->
      fs_compl_ivl_loop os oe L last lopen ropen ivs = (Ok st, []) ->
      let last' := fst (fst (fst st)) in let lopen' := snd (fst (fst st)) in
      let ropen' := snd (fst st) in let ivs' := snd st in
      num_ok last' = true /\ forallb wf_set ivs' = true /\ npos last' <p npos oe /\
      forall p, existsb (In_set p) ivs' || in_interval last' oe lopen' ropen' p
                = (existsb (In_set p) ivs || in_interval last oe lopen ropen p) && negb (in_finite L p).
  Proof using Hos Hoe Hlt.
    induction L as [|a t IH]; intros last lopen ropen ivs st HL HS Hinv H; simpl in H.
    - minv. simpl. destruct Hinv as [H1 [_ [H3 [H4 _]]]]. split; [exact H1|split; [exact H4|split; [exact H3|]]].
      intro p. rewrite andb_true_r. reflexivity.
    - simpl in HL. apply andb_prop in HL. destruct HL as [Ha Ht].
      inversion HS as [|? ? HSt Hall]; subst. rewrite Forall_forall in Hall.
      pose proof Hinv as [Hlast [Hol [Hle [Hwf [Hbelow Hsorted]]]]].
      revert H. destruct (nmax_r_spec a os Ha Hos) as [E1|E1]; [|destruct (nmax_l_spec a oe Ha Hoe) as [E2|E2]]; intro H.
      + (* a <= start: nothing has been cut yet, and a is at the start or outside *)
        assert (Hlo : npos last =p npos os).
        { destruct Hsorted as [Hs|Hs]; [exact Hs|]. specialize (Hs a (or_introl eq_refl)). pord. }
        assert (Hnoivs : forall p, existsb (In_set p) ivs = false).
        { intro p. destruct (existsb (In_set p) ivs) eqn:E; [|reflexivity].
          destruct (Hbelow p E). exfalso. pord. }
        pose proof (walk_inv_skip a t last ivs Hinv Hlo) as Hinv'.
        destruct (IH last _ ropen ivs st Ht HSt Hinv' H) as [I1 [I2 [I2' I3]]].
        split; [exact I1|split; [exact I2|split; [exact I2'|]]].
        intro p. rewrite I3, !Hnoivs, in_finite_cons', !in_interval_rays, at_pos_at. cbn [orb].
        destruct (num_eqb_spec a os Ha Hos) as [E|E].
        * rewrite (ray_open true (npos a) (npos last) lopen) by pord. btauto.
        * rewrite <- (after_clear (npos a) (npos last) lopen (ppos p)) by pord. btauto.
      + (* a >= end: break; every remaining element is at the end or beyond *)
        minv. cbn [fst snd]. split; [exact Hlast|split; [exact Hwf|split; [exact Hle|]]].
        intro p. rewrite !in_interval_rays.
        destruct (in_finite (a :: t) p) eqn:Ef; cbn [negb]; rewrite ?andb_false_r, ?andb_true_r.
        * apply in_finite_iff in Ef. destruct Ef as [b [Hb Hbp]].
          assert (Hab : npos a <=p npos b) by (destruct Hb as [<-|Hb]; [pord|exact (Hall b Hb)]).
          destruct (existsb (In_set p) ivs) eqn:Ei; [destruct (Hbelow p Ei); exfalso; pord|]. cbn [orb].
          unfold ray. cmp_cases; [|apply andb_false_r].
          destruct (num_eqb_spec a oe Ha Hoe) as [_|N]; [apply andb_false_r|exfalso; apply N; pord].
        * rewrite in_finite_cons' in Ef. apply orb_false_elim in Ef. destruct Ef as [Ea _].
          destruct (num_eqb_spec a oe Ha Hoe) as [E|E]; [|reflexivity].
          rewrite at_pos_at in Ea. rewrite (ray_open false (npos a) (npos oe) ropen), Ea, andb_true_r by exact E.
          reflexivity.
      + (* strictly inside: the piece from the last element to a is cut off *)
        assert (Hla : npos last <=p npos a).
        { destruct Hsorted as [Hs|Hs]; [pord|apply Hs; left; reflexivity]. }
        minv. pose proof (ss_ins_ok _ _ _ Hm) as Hse.
        pose proof (walk_inv_cut a t last lopen ivs x Ha Hinv E1 E2 Hall Hm) as Hinv'.
        destruct (IH a true ropen x st Ht HSt Hinv' Hk) as [I1 [I2 [I2' I3]]].
        split; [exact I1|split; [exact I2|split; [exact I2'|]]].
        intro p. rewrite I3, (existsb_same_elems (In_set p) x _ Hse). cbn [existsb].
        rewrite interval_In, in_finite_cons', !in_interval_rays, at_pos_at by assumption.
        assert (D : forall x ab t f, (x || ab) && negb (t || f) = (x && negb t || ab && negb t) && negb f)
          by (intros; btauto).
        rewrite D, (interval_cut (npos a)) by pord.
        replace (existsb (In_set p) ivs && negb (pos_at (npos a) (ppos p))) with (existsb (In_set p) ivs); [btauto|].
        destruct (existsb (In_set p) ivs) eqn:Ei; [|reflexivity].
        destruct (Hbelow p Ei). unfold pos_at. cmp_cases; reflexivity.
  Qed.
End Walk.
