(* C27 proofs, layer 5: number sets, contains, finite sets. *)
From Coq Require Import QArith Lia Btauto.
From SE Require Import C27.SetSpec C27.SetOrder C27.SetNum C27.SetCont C27.SetIvl.

Lemma in_naturals_naturals0 : forall p, in_naturals p = true -> in_naturals0 p = true.
Proof.
  intros [q|q a i] H; simpl in *; [|discriminate].
  apply andb_prop in H; destruct H as [H1 H2]. rewrite H1. simpl.
  apply Z.ltb_lt in H2. apply Z.leb_le. lia.
Qed.
Lemma in_naturals0_integers : forall p, in_naturals0 p = true -> in_integers p = true.
Proof. intros [q|q a i] H; simpl in *; [|discriminate]. apply andb_prop in H; tauto. Qed.
Lemma in_integers_rationals : forall p, in_integers p = true -> in_rationals p = true.
Proof. intros [q|q a i] H; simpl in *; [reflexivity|discriminate]. Qed.

Lemma in_naturals_integers : forall p, in_naturals p = true -> in_integers p = true.
Proof. intros; apply in_naturals0_integers, in_naturals_naturals0; assumption. Qed.

(* Naturals < Naturals0 < Integers < Rationals: the memberships of a point in the four *)
Inductive chain4 : bool -> bool -> bool -> bool -> Prop :=
| chain_n : chain4 true true true true
| chain_n0 : chain4 false true true true
| chain_z : chain4 false false true true
| chain_q : chain4 false false false true
| chain_none : chain4 false false false false.
Lemma numset_chain : forall p, chain4 (in_naturals p) (in_naturals0 p) (in_integers p) (in_rationals p).
Proof.
  intros [q|q a [|]]; simpl; try constructor.
  destruct (q_is_int q); simpl; [|constructor].
  destruct (Z.ltb_spec 0 (Qnum q)); destruct (Z.leb_spec 0 (Qnum q)); try constructor; lia.
Qed.

(* b -> c as an equation on booleans *)
Lemma sub_or : forall b c : bool, (b = true -> c = true) -> c || b = c.
Proof. intros [|] [|] H; try reflexivity. discriminate H; reflexivity. Qed.
Lemma sub_or' : forall b c : bool, (b = true -> c = true) -> b || c = c.
Proof. intros [|] [|] H; try reflexivity. discriminate H; reflexivity. Qed.
Lemma sub_and : forall b c : bool, (b = true -> c = true) -> c && b = b.
Proof. intros [|] [|] H; try reflexivity. discriminate H; reflexivity. Qed.
Lemma sub_and' : forall b c : bool, (b = true -> c = true) -> b && c = b.
Proof. intros [|] [|] H; try reflexivity. discriminate H; reflexivity. Qed.
Lemma sub_diff : forall b c : bool, (b = true -> c = true) -> b && negb c = false.
Proof. intros [|] [|] H; try reflexivity. discriminate H; reflexivity. Qed.

(* a point at the position of a number is a rational point with that value *)
Lemma pos_eq_at : forall a p, num_ok a = true -> npos a =p ppos p ->
    exists q v, p = PAt q /\ qval a = Some v /\ (v == q)%Q.
Proof.
  intros a p Ha H. apply PosO.eq_iff in H.
  destr_num a; simpl in *.
  - destruct p as [q|q ab i]; simpl in H.
    + exists q, (inject_Z z). repeat split; auto. apply Qcmp_Eq. destruct (inject_Z z ?= q)%Q; try discriminate; reflexivity.
    + destruct (inject_Z z ?= q)%Q; try discriminate. destruct ab; discriminate.
  - destruct p as [q|q ab i]; simpl in H.
    + exists q, (n # d). repeat split; auto. apply Qcmp_Eq. destruct (n # d ?= q)%Q; try discriminate; reflexivity.
    + destruct (n # d ?= q)%Q; try discriminate. destruct ab; discriminate.
  - apply num_ok_inf in Ha. destruct Ha; subst; destruct p; simpl in H; discriminate.
Qed.

Lemma q_is_int_of_int : forall z q, (inject_Z z == q)%Q -> q_is_int q = true.
Proof.
  intros z [n d] H. unfold Qeq in H; simpl in H. unfold q_is_int; simpl.
  apply Z.eqb_eq. rewrite Z.mul_1_r in H. subst n. apply Z.mod_mul. lia.
Qed.
Lemma q_is_int_of_rat : forall n d q, Z.gcd n (Zpos d) = 1%Z -> (1 < Zpos d)%Z -> (n # d == q)%Q -> q_is_int q = false.
Proof.
  intros n d [m e] Hg Hd H. unfold q_is_int; simpl.
  destruct (Z.eqb_spec (m mod Zpos e) 0) as [E|E]; [|reflexivity]. exfalso.
  apply Z.mod_divide in E; [|lia]. destruct E as [k Hk]. subst m.
  apply (rat_not_int n d k Hg Hd). apply Qcmp_Eq.
  unfold Qeq in *; simpl in *. nia.
Qed.
Lemma qnum_sign_int : forall z q, (inject_Z z == q)%Q -> (0 <? z)%Z = (0 <? Qnum q)%Z /\ (0 <=? z)%Z = (0 <=? Qnum q)%Z.
Proof.
  intros z [n d] H. unfold Qeq in H; simpl in *. rewrite Z.mul_1_r in H. subst n.
  split.
  - destruct (Z.ltb_spec 0 z); destruct (Z.ltb_spec 0 (z * Zpos d)); try reflexivity; nia.
  - destruct (Z.leb_spec 0 z); destruct (Z.leb_spec 0 (z * Zpos d)); try reflexivity; nia.
Qed.

(* the number-set tests of the code on a number are the memberships of a point at its position *)
Lemma at_num_point : forall a p, num_ok a = true -> npos a =p ppos p ->
    n_is_exact a = in_rationals p /\ is_integer a = in_integers p /\
    n_is_positive_int a = in_naturals p /\ n_is_nonneg_int a = in_naturals0 p.
Proof.
  intros a p Ha Hp. destruct (pos_eq_at a p Ha Hp) as [q [v [-> [Hv Hq]]]].
  destr_num a; simpl in *; inversion Hv; subst.
  - rewrite (q_is_int_of_int _ _ Hq). destruct (qnum_sign_int _ _ Hq) as [<- <-]. auto.
  - apply num_ok_rat in Ha. destruct Ha as [Hg Hd]. rewrite (q_is_int_of_rat _ _ _ Hg Hd Hq). auto.
Qed.

Lemma quant_ext_in : forall u {A} (f g : A -> bool) l, (forall x, In x l -> f x = g x) -> quant u f l = quant u g l.
Proof.
  intros u A f g l H. induction l as [|x r IH]; [destruct u; reflexivity|].
  rewrite !quant_cons, (H x) by (left; reflexivity). rewrite IH; [reflexivity|]. intros y Hy; apply H; right; assumption.
Qed.

Lemma forallb_In : forall {A} (f : A -> bool) l x, forallb f l = true -> In x l -> f x = true.
Proof. intros A f l x H Hx. rewrite forallb_forall in H. apply H; assumption. Qed.

Lemma contains_In : forall S a p, wf_set S = true -> num_ok a = true -> npos a =p ppos p ->
    contains S a = In_set p S.
Proof.
  induction S using sv_ind'; intros a p Hwf Ha Hp; simpl; try reflexivity.
  - (* Rationals *) apply (at_num_point a p Ha Hp).
  - (* Integers *) apply (at_num_point a p Ha Hp).
  - (* Naturals *) apply (at_num_point a p Ha Hp).
  - (* Naturals0 *) apply (at_num_point a p Ha Hp).
  - apply ivl_contains_at; assumption.
  - (* FiniteSet *) unfold in_finite. apply (quant_ext_in true). intros x Hx.
    simpl in Hwf. pose proof (forallb_In _ _ _ Hwf Hx) as Hxok.
    rewrite cmp_np_pos.
    destruct (num_eqb_spec x a Hxok Ha) as [E|E];
      destruct (pos_cmp_spec (npos x) (ppos p)) as [[-> Hc]|[[-> Hc]|[-> Hc]]]; try reflexivity; exfalso; pord.
  - (* Union *) apply wf_union_inv in Hwf. destruct Hwf as [_ Hwf]. apply (quant_ext_in true). intros x Hx.
    rewrite Forall_forall in H. apply H; auto. eapply forallb_In; eauto.
  - (* Intersection *) simpl in Hwf. apply (quant_ext_in false). intros x Hx.
    rewrite Forall_forall in H. apply H; auto. eapply forallb_In; eauto.
  - (* Complement *) simpl in Hwf. apply andb_prop in Hwf. destruct Hwf.
    rewrite (IHS1 a p), (IHS2 a p); auto.
Qed.

Lemma in_finite_same : forall r l p, same_elems r l -> in_finite r p = in_finite l p.
Proof. intros r l p H. unfold in_finite. apply existsb_same_elems. exact H. Qed.
Lemma in_finite_app : forall a b p, in_finite (a ++ b) p = in_finite a p || in_finite b p.
Proof. intros. unfold in_finite. apply existsb_app. Qed.

(* the point is at the number's position: [SetIvl.pos_at] of the two positions ([at_pos_at]) *)
Definition at_pos (a : number) (p : point) : bool := match cmp_np a p with Eq => true | _ => false end.
Lemma at_pos_iff : forall a p, at_pos a p = true <-> npos a =p ppos p.
Proof.
  intros a p. unfold at_pos. rewrite cmp_np_pos, PosO.eq_iff.
  destruct (pos_cmp (npos a) (ppos p)); split; intro H; try discriminate H; reflexivity.
Qed.
Lemma in_finite_cons' : forall a l p, in_finite (a :: l) p = at_pos a p || in_finite l p.
Proof. reflexivity. Qed.
Lemma at_pos_at : forall a p, at_pos a p = pos_at (npos a) (ppos p).
Proof. intros. unfold at_pos. rewrite cmp_np_pos. reflexivity. Qed.
Lemma in_finite_iff : forall l p, in_finite l p = true <-> exists a, In a l /\ npos a =p ppos p.
Proof.
  intros l p. unfold in_finite. rewrite existsb_exists.
  split; intros [a [Ha Hp]]; exists a; (split; [exact Ha|]); apply (at_pos_iff a p); exact Hp.
Qed.

Lemma in_finite_filter : forall (f : number -> bool) (b : point -> bool) l p,
    (forall a, In a l -> at_pos a p = true -> f a = b p) ->
    in_finite (filter f l) p = in_finite l p && b p.
Proof.
  induction l as [|a t IH]; intros p H; [reflexivity|].
  assert (IH' : in_finite (filter f t) p = in_finite t p && b p).
  { apply IH. intros a' Ha'. apply H. right; exact Ha'. }
  cbn [filter]. rewrite (in_finite_cons' a t p). destruct (at_pos a p) eqn:Ep.
  - rewrite (H a (or_introl eq_refl) Ep). destruct (b p) eqn:Eb; cbn [andb orb].
    + rewrite in_finite_cons', Ep. reflexivity.
    + rewrite IH'. apply andb_false_r.
  - cbn [orb]. destruct (f a); [rewrite in_finite_cons', Ep; cbn [orb]|]; exact IH'.
Qed.
Lemma forallb_filter_ok : forall (f : number -> bool) l, forallb num_ok l = true -> forallb num_ok (filter f l) = true.
Proof.
  induction l as [|x t IH]; intro H; simpl in *; [reflexivity|].
  apply andb_prop in H. destruct H as [Hx Ht]. destruct (f x); simpl; [rewrite Hx|]; auto.
Qed.

(* the container built from the elements that pass a test which, at an element's position, decides [g] *)
Lemma filtered_finite_ok : forall (f : number -> bool) (g : point -> bool) l c,
    forallb num_ok l = true ->
    (forall a p, In a l -> npos a =p ppos p -> f a = g p) ->
    nb_ins_all (filter f l) [] = (Ok c, []) ->
    forallb num_ok c = true /\ forall p, in_finite c p = in_finite l p && g p.
Proof.
  intros f g l c Hl Hf H. pose proof (nb_ins_all_ok _ _ _ H) as Hse. rewrite app_nil_r in Hse. split.
  - apply (forallb_same_true num_ok c _ Hse). apply forallb_filter_ok. exact Hl.
  - intro p. rewrite (in_finite_same c _ p Hse). apply in_finite_filter.
    intros a Ha Hp. apply Hf; [exact Ha|apply at_pos_iff; exact Hp].
Qed.

(* a finite set of the fragment only has rational members *)
Lemma in_finite_rationals : forall l p, forallb num_ok l = true -> in_finite l p = true -> in_rationals p = true.
Proof.
  intros l p Hl H. apply in_finite_iff in H. destruct H as [a [Ha Hap]].
  destruct (pos_eq_at a p (forallb_In _ _ _ Hl Ha) Hap) as [q [v [-> _]]]. reflexivity.
Qed.

(* FiniteSet::set_union(Interval) *)
Lemma in_interval_closing : forall s e lo ro lo' ro' p,
    (lo' = true -> lo = true) -> (ro' = true -> ro = true) ->
    in_interval s e lo ro p = true -> in_interval s e lo' ro' p = true.
Proof.
  intros s e lo ro lo' ro' p H1 H2. rewrite !in_interval_rays. unfold ray.
  destruct (pos_cmp (npos s) (ppos p)); destruct (pos_cmp (npos e) (ppos p));
    destruct lo, ro, lo', ro'; simpl; intros; try reflexivity; try discriminate;
    try (specialize (H1 eq_refl); discriminate); try (specialize (H2 eq_refl); discriminate).
Qed.

Lemma fs_union_ivl_loop_ok : forall os oe olo oro l lf rt cont st,
    wf_set (SInterval os oe olo oro) = true -> forallb num_ok l = true -> forallb num_ok cont = true ->
    (lf = true -> olo = true) -> (rt = true -> oro = true) ->
    fs_union_ivl_loop os oe olo oro l lf rt cont = (Ok st, []) ->
    forallb num_ok (snd st) = true /\
    (fst (fst st) = true -> olo = true) /\ (snd (fst st) = true -> oro = true) /\
    forall p, in_finite (snd st) p || in_interval os oe (fst (fst st)) (snd (fst st)) p
              = in_finite l p || (in_finite cont p || in_interval os oe lf rt p).
Proof.
  intros os oe olo oro l. induction l as [|a t IH]; intros lf rt cont st Hwf Hl Hc Hlf Hrt H; simpl in H.
  - minv. simpl. repeat split; auto.
  - simpl in Hl. apply andb_prop in Hl. destruct Hl as [Ha Ht].
    pose proof (wf_interval_inv _ _ _ _ Hwf) as [Hos [Hoe Hlt]].
    destruct (ivl_contains os oe olo oro a) eqn:Ec.
    + (* a lies in the interval *)
      destruct (IH lf rt cont st Hwf Ht Hc Hlf Hrt H) as [I1 [I2 [I3 I4]]]. repeat split; auto.
      intro p. rewrite I4, in_finite_cons'.
      destruct (at_pos a p) eqn:Ep; [|reflexivity].
      apply at_pos_iff in Ep. rewrite (ivl_contains_at os oe olo oro a p Hwf Ha Ep) in Ec.
      rewrite (in_interval_closing os oe olo oro lf rt p Hlf Hrt Ec). rewrite !orb_true_r. reflexivity.
    + destruct (lf && num_eqb os a) eqn:E1.
      * apply andb_prop in E1. destruct E1 as [-> E1]. apply num_eqb_pos in E1; auto.
        assert (Hfalse : false = true -> olo = true) by (intro; discriminate).
        destruct (IH false rt cont st Hwf Ht Hc Hfalse Hrt H) as [I1 [I2 [I3 I4]]]. repeat split; auto.
        intro p. rewrite I4, in_finite_cons', !in_interval_rays, at_pos_at.
        rewrite (interval_close_start (npos a)) by (assumption || pord). btauto.
      * destruct (rt && num_eqb oe a) eqn:E2.
        -- apply andb_prop in E2. destruct E2 as [-> E2]. apply num_eqb_pos in E2; auto.
           assert (Hfalse : false = true -> oro = true) by (intro; discriminate).
           destruct (IH lf false cont st Hwf Ht Hc Hlf Hfalse H) as [I1 [I2 [I3 I4]]]. repeat split; auto.
           intro p. rewrite I4, in_finite_cons', !in_interval_rays, at_pos_at.
           rewrite (interval_close_end (npos a)) by (assumption || pord). btauto.
        -- minv. pose proof (nb_ins_ok _ _ _ Hm) as Hse.
           assert (Hx : forallb num_ok x = true).
           { apply (forallb_same_true num_ok x (a :: cont) Hse). simpl. rewrite Ha, Hc. reflexivity. }
           destruct (IH lf rt x st Hwf Ht Hx Hlf Hrt Hk) as [I1 [I2 [I3 I4]]]. repeat split; auto.
           intro p. rewrite I4, (in_finite_same x (a :: cont) p Hse), !in_finite_cons'.
           destruct (at_pos a p), (in_finite t p), (in_finite cont p), (in_interval os oe lf rt p); reflexivity.
Qed.
