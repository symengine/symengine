(* C27 proofs, layer 5c: the container comparator (RCPBasicKeyLess of the shared expression model) on
   the numbers of the fragment, as far as std::set_difference needs it: irreflexive, asymmetric, and
   two numbers that are not ordered either way are identical. *)
From Coq Require Import QArith Lia.
From SE Require Import C27.SetSpec C27.SetOrder C27.SetNum C27.SetCont C27.SetIvl C27.SetFin.

Lemma num_eqb_sym' : forall a b, num_ok a = true -> num_ok b = true -> num_eqb a b = num_eqb b a.
Proof.
  intros a b Ha Hb. destr_num a; destr_num b; simpl; try reflexivity.
  - apply Z.eqb_sym.
  - unfold Qeq_pair. rewrite Z.eqb_sym. reflexivity.
  - apply Z.eqb_sym.
Qed.

(* the comparator unfolded on two numbers *)
Lemma num_less_unfold : forall a b,
    num_less a b =
    if negb (hash_num a =? hash_num b)%N then (hash_num a <? hash_num b)%N
    else if num_eqb a b then false
    else (num_cmp a b =? -1)%Z.
Proof.
  intros a b. unfold num_less, expr_keyless, keyless, expr_eqb, expr_cmp, num_cmp. simpl.
  destruct (negb (hash_num a =? hash_num b)%N); [reflexivity|].
  destruct (num_eqb a b); [reflexivity|].
  destruct (num_type_code a =? num_type_code b)%N; simpl; reflexivity.
Qed.

Lemma Zcmp_m1 : forall x y, (Zcmp x y =? -1)%Z = (x <? y)%Z.
Proof.
  intros. rewrite Zcmp_compare. destruct (Z.compare_spec x y); destruct (Z.ltb_spec x y); try reflexivity; lia.
Qed.

(* for two different numbers exactly one direction compares as -1 *)
Lemma num_cmp_excl : forall a b, num_ok a = true -> num_ok b = true -> num_eqb a b = false ->
    (num_cmp a b =? -1)%Z = negb (num_cmp b a =? -1)%Z.
Proof.
  intros a b Ha Hb H. unfold num_cmp.
  destr_num a; destr_num b; simpl in *; try reflexivity.
  - rewrite !Zcmp_m1. apply Z.eqb_neq in H.
    destruct (Z.ltb_spec z z0); destruct (Z.ltb_spec z0 z); try reflexivity; lia.
  - unfold Qcmp_pair. rewrite !Zcmp_m1. unfold Qeq_pair in H. apply Z.eqb_neq in H.
    destruct (Z.ltb_spec (n * Zpos d0) (n0 * Zpos d)); destruct (Z.ltb_spec (n0 * Zpos d) (n * Zpos d0)); try reflexivity; lia.
  - rewrite !Zcmp_m1. apply Z.eqb_neq in H.
    destruct (Z.ltb_spec dir dir0); destruct (Z.ltb_spec dir0 dir); try reflexivity; lia.
Qed.

Lemma num_less_irrefl : forall a, num_ok a = true -> num_less a a = false.
Proof.
  intros a Ha. rewrite num_less_unfold. rewrite N.eqb_refl. simpl. rewrite num_eqb_refl'; auto.
Qed.

Lemma num_less_asym : forall a b, num_ok a = true -> num_ok b = true -> num_less a b = true -> num_less b a = false.
Proof.
  intros a b Ha Hb H. rewrite num_less_unfold in *.
  rewrite (N.eqb_sym (hash_num b) (hash_num a)).
  destruct (hash_num a =? hash_num b)%N eqn:Eh; simpl in *.
  - rewrite (num_eqb_sym' b a Hb Ha). destruct (num_eqb a b) eqn:Ee; [discriminate|].
    rewrite (num_cmp_excl a b Ha Hb Ee) in H. apply negb_true_iff in H. exact H.
  - apply N.ltb_lt in H. apply N.ltb_ge. lia.
Qed.

Lemma num_less_equiv : forall a b, num_ok a = true -> num_ok b = true ->
    num_less a b = false -> num_less b a = false -> a = b.
Proof.
  intros a b Ha Hb H1 H2. rewrite num_less_unfold in *.
  rewrite (N.eqb_sym (hash_num b) (hash_num a)) in H2.
  destruct (hash_num a =? hash_num b)%N eqn:Eh; simpl in *.
  - destruct (num_eqb a b) eqn:Ee; [apply num_eqb_eq; auto|].
    rewrite (num_eqb_sym' b a Hb Ha), Ee in H2.
    rewrite (num_cmp_excl a b Ha Hb Ee), H2 in H1. discriminate.
  - apply N.eqb_neq in Eh. apply N.ltb_ge in H1. apply N.ltb_ge in H2. exfalso. lia.
Qed.

(* std::set_difference *)
Lemma key_sorted_cons : forall x l, key_sorted (x :: l) = true ->
    (forall y, In y l -> num_less x y = true) /\ key_sorted l = true.
Proof.
  intros x l H. simpl in H. apply andb_prop in H. destruct H as [H1 H2]. split; [|assumption].
  intros y Hy. rewrite forallb_forall in H1. apply H1; assumption.
Qed.

Lemma set_difference_aux_ok : forall fuel a b,
    (length a + length b <= fuel)%nat ->
    forallb num_ok a = true -> forallb num_ok b = true -> key_sorted a = true -> key_sorted b = true ->
    forall x, In x (set_difference_aux fuel a b) <-> In x a /\ ~ In x b.
Proof.
  induction fuel as [|f IH]; intros a b Hf Ha Hb Sa Sb x.
  - destruct a; destruct b; simpl in *; try lia; tauto.
  - destruct a as [|u a']; [simpl; tauto|].
    destruct b as [|v b']; [simpl; tauto|].
    cbn [set_difference_aux].
    pose proof Ha as Ha0. pose proof Hb as Hb0.
    simpl in Ha. apply andb_prop in Ha. destruct Ha as [Hu Ha'].
    simpl in Hb. apply andb_prop in Hb. destruct Hb as [Hv Hb'].
    destruct (key_sorted_cons _ _ Sa) as [Su Sa']. destruct (key_sorted_cons _ _ Sb) as [Sv Sb'].
    assert (Hokb : forall y, In y b' -> num_ok y = true) by (intros y Hy; exact (forallb_In num_ok b' y Hb' Hy)).
    assert (Hoka : forall y, In y a' -> num_ok y = true) by (intros y Hy; exact (forallb_In num_ok a' y Ha' Hy)).
    destruct (num_less u v) eqn:E1.
    + (* u is output; it is not in b *)
      assert (Hnot : ~ In u (v :: b')).
      { intros [<-|Hin].
        - rewrite num_less_irrefl in E1; auto; discriminate.
        - pose proof (Sv u Hin) as Hvu. rewrite (num_less_asym v u Hv Hu Hvu) in E1. discriminate. }
      simpl In at 1. rewrite (IH a' (v :: b')); auto; [|simpl in *; lia].
      split.
      * intros [<-|[H1 H2]]; [split; [left; reflexivity|exact Hnot]|split; [right; exact H1|exact H2]].
      * intros [[<-|H1] H2]; [left; reflexivity|right; split; assumption].
    + destruct (num_less v u) eqn:E2.
      * (* v is skipped; it is not in a *)
        assert (Hnot : ~ In v (u :: a')).
        { intros [<-|Hin].
          - rewrite num_less_irrefl in E2; auto; discriminate.
          - pose proof (Su v Hin) as Huv. congruence. }
        rewrite (IH (u :: a') b'); auto; [|simpl in *; lia].
        split.
        -- intros [H1 H2]. split; [exact H1|]. intros [<-|H3]; [apply Hnot; exact H1|apply H2; exact H3].
        -- intros [H1 H2]. split; [exact H1|]. intro H3. apply H2. right; exact H3.
      * (* equivalent, hence identical: dropped *)
        assert (u = v) by (apply num_less_equiv; auto). subst v.
        assert (Hnu : ~ In u a').
        { intro Hin. pose proof (Su u Hin) as Huu. rewrite num_less_irrefl in Huu; auto; discriminate. }
        assert (Hnv : ~ In u b').
        { intro Hin. pose proof (Sv u Hin) as Huu. rewrite num_less_irrefl in Huu; auto; discriminate. }
        rewrite (IH a' b'); auto; [|simpl in *; lia].
        split.
        -- intros [H1 H2]. split; [right; exact H1|]. intros [<-|H3]; [apply Hnu; exact H1|apply H2; exact H3].
        -- intros [[<-|H1] H2]; [exfalso; apply H2; left; reflexivity|].
           split; [exact H1|]. intro H3. apply H2. right; exact H3.
Qed.

Lemma set_difference_ok : forall a b,
    forallb num_ok a = true -> forallb num_ok b = true -> key_sorted a = true -> key_sorted b = true ->
    forall x, In x (set_difference a b) <-> In x a /\ ~ In x b.
Proof. intros. unfold set_difference. apply set_difference_aux_ok; auto. Qed.

(* membership of a point in the difference *)
Lemma in_finite_difference : forall a b p,
    forallb num_ok a = true -> forallb num_ok b = true -> key_sorted a = true -> key_sorted b = true ->
    in_finite (set_difference a b) p = in_finite a p && negb (in_finite b p).
Proof.
  intros a b p Ha Hb Sa Sb.
  pose proof (set_difference_ok a b Ha Hb Sa Sb) as Hd.
  apply Bool.eq_iff_eq_true. rewrite andb_true_iff, negb_true_iff, <- not_true_iff_false, !in_finite_iff. split.
  - intros [x [Hx Hp]]. apply Hd in Hx. destruct Hx as [Hxa Hxb]. split; [exists x; auto|].
    (* a member of b at the same position would be x itself *)
    intros [y [Hy Hq]]. apply Hxb. replace x with y; [exact Hy|].
    apply same_pos_eq; [exact (forallb_In num_ok b y Hb Hy)|exact (forallb_In num_ok a x Ha Hxa)|pord].
  - intros [[x [Hx Hp]] Hn]. exists x. split; [|exact Hp]. apply Hd. split; [exact Hx|].
    intro Hin. apply Hn. exists x; auto.
Qed.

Lemma set_difference_num_ok : forall a b, forallb num_ok a = true -> forallb num_ok b = true ->
    key_sorted a = true -> key_sorted b = true -> forallb num_ok (set_difference a b) = true.
Proof.
  intros a b Ha Hb Sa Sb. apply forallb_forall. intros x Hx.
  apply (set_difference_ok a b Ha Hb Sa Sb) in Hx. destruct Hx as [Hxa _]. exact (forallb_In num_ok a x Ha Hxa).
Qed.
