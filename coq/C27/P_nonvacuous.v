(* C27: concrete non-trivial inputs satisfy the hypotheses of the property theorems
   (well-formed operands, a returned set, no defect flag), and the results are what the library returns. *)
From SE Require Import C27.SetSpec C27.SetProofs C27.SetTheorems.
Local Open Scope Z_scope.

Definition iv (a b : Z) (lo ro : bool) : sv := SInterval (NInt a) (NInt b) lo ro.

(* [0,2] u (1,3] = [0,3] *)
Example nv_union : wf_set (iv 0 2 false false) = true /\ wf_set (iv 1 3 true false) = true /\
  op_munion (iv 0 2 false false) (iv 1 3 true false) = (Ok (iv 0 3 false false), []).
Proof. vm_compute. repeat split; reflexivity. Qed.

(* (0,5) n Naturals0 with rational endpoints: [-5/2, 7/2] n Naturals0 = {0,1,2,3} *)
Example nv_inter_numset :
  op_misect (SInterval (NRat (-5) 2) (NRat 7 2) false false) SNaturals0
  = (Ok (SFinite [NInt 0; NInt 1; NInt 2; NInt 3]), []).
Proof. vm_compute. reflexivity. Qed.

(* [-5,5] \ {-1,2,3}: the container is in hash order (2, 3, -1), the walk uses the sorted copy *)
Example nv_compl_finite : exists R,
  wf_set (SFinite [NInt 2; NInt 3; NInt (-1)]) = true /\
  op_mcompl (SFinite [NInt 2; NInt 3; NInt (-1)]) (iv (-5) 5 false false) = (Ok R, []) /\
  In_set (PAt (2 # 1)) R = false /\ In_set (PNear (2 # 1) true true) R = true /\ In_set (PAt (-5 # 1)) R = true.
Proof.
  (* the result is found by evaluating the call alone: with R unknown nothing of the goal evaluates *)
  eexists. split; [reflexivity|]. split; [vm_compute; reflexivity|]. vm_compute. repeat split; reflexivity.
Qed.

(* [1,2] \ [5,6] = [1,2] (the operands do not overlap) *)
Example nv_compl_disjoint :
  op_mcompl (iv 5 6 false false) (iv 1 2 false false) = (Ok (iv 1 2 false false), []).
Proof. vm_compute. reflexivity. Qed.

(* a Union intersected with an interval, through the free function *)
Example nv_free_inter : exists R,
  op_fisect [SUnion [iv 0 1 false false; iv 2 3 false false]; SInterval (NRat 1 2) (NRat 5 2) false false] = (Ok R, []) /\
  wf_set R = true /\ In_set (PAt (1 # 1)) R = true /\ In_set (PAt (3 # 2)) R = false.
Proof. eexists. split; [vm_compute; reflexivity|]. vm_compute. repeat split; reflexivity. Qed.

(* closure of an open interval, boundary of a half-open one, supremum of a union *)
Example nv_closure : simple (iv 0 5 true true) = true /\
  op_closure (iv 0 5 true true) = (Ok (iv 0 5 false false), []).
Proof. vm_compute. split; reflexivity. Qed.
Example nv_boundary : op_boundary (iv 0 5 false true) = (Ok (SFinite [NInt 0; NInt 5]), []).
Proof. vm_compute. reflexivity. Qed.
Example nv_sup : sup (SUnion [SFinite [NInt 7]; iv 1 3 false true]) = Ok (NInt 7).
Proof. vm_compute. reflexivity. Qed.

(* contains: a definite answer, equal to the membership *)
Example nv_contains : contains (SCompl SReals (iv 0 1 false false)) (NRat 1 2) = false /\
  num_ok (NRat 1 2) = true /\ qval (NRat 1 2) = Some (1 # 2)%Q.
Proof. vm_compute. repeat split; reflexivity. Qed.
