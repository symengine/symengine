(* C27 proofs, layer 4: the writer monad, structural identity, and the ordered containers
   (std::set insertion) as far as the membership semantics needs them: an insertion whose
   collision guard did not fire adds exactly the inserted element. *)
From Coq Require Import QArith.
From SE Require Import C27.SetSpec.
Local Open Scope m_scope.

Lemma mbind_ok : forall {A B} (m : M A) (f : A -> M B) r,
    mbind m f = (Ok r, []) -> exists x, m = (Ok x, []) /\ f x = (Ok r, []).
Proof.
  intros A B [[a|i l| |c] fl] f r H; simpl in H; try discriminate.
  destruct (f a) as [r' fl'] eqn:E. inversion H; subst.
  apply app_eq_nil in H2. destruct H2; subst. exists a; split; [reflexivity|assumption].
Qed.

Lemma ret_ok : forall {A} (a r : A), ret a = (Ok r, []) -> a = r.
Proof. intros A a r H; inversion H; reflexivity. Qed.

Lemma mbind_ok_nil : forall {A B} (x : A) (f : A -> M B), mbind (Ok x, []) f = f x.
Proof. intros. simpl. destruct (f x); reflexivity. Qed.
Lemma mbind_ret_l : forall {A B} (x : A) (f : A -> M B), mbind (ret x) f = f x.
Proof. intros. apply mbind_ok_nil. Qed.
Lemma mbind_ret_r : forall {A} (m : M A), mbind m ret = m.
Proof. intros A [[x|i l| |c] fl]; simpl; rewrite ?app_nil_r; reflexivity. Qed.

Lemma flag_not_ok : forall {A} d (m : M A) r, flag d m = (Ok r, []) -> False.
Proof. intros A d [x fl] r H; simpl in H; inversion H. Qed.

Lemma flag_if_ok : forall {A} b d (m : M A) r,
    flag_if b d m = (Ok r, []) -> b = false /\ m = (Ok r, []).
Proof.
  intros A [|] d m r H; simpl in H.
  - exfalso; eapply flag_not_ok; eauto.
  - auto.
Qed.

Lemma fail_not_ok : forall {A} (e : res A) d r, fail e d = (Ok r, []) -> False.
Proof. intros A e d r H; inversion H. Qed.

(* repeated inversion of a successful, flag-free computation *)
Ltac minv :=
  repeat match goal with
         | H : mbind _ _ = (Ok _, []) |- _ =>
             let x := fresh "x" in let H1 := fresh "Hm" in let H2 := fresh "Hk" in
             apply mbind_ok in H; destruct H as [x [H1 H2]]
         | H : ret _ = (Ok _, []) |- _ => apply ret_ok in H; try subst
         | H : flag_if _ _ _ = (Ok _, []) |- _ =>
             let H1 := fresh "Hg" in let H2 := fresh "Hm" in
             apply flag_if_ok in H; destruct H as [H1 H2]
         | H : flag _ _ = (Ok _, []) |- _ => exfalso; exact (flag_not_ok _ _ _ H)
         | H : fail _ _ = (Ok _, []) |- _ => exfalso; exact (fail_not_ok _ _ _ H)
         end.

Lemma num_same_eq : forall a b, num_same a b = true -> a = b.
Proof.
  intros [z|n d|? ? ? ?|?|? ?|dir|] [z'|n' d'|? ? ? ?|?|? ?|dir'|] H; simpl in H; try discriminate.
  - apply Z.eqb_eq in H; subst; reflexivity.
  - apply andb_prop in H; destruct H as [H1 H2]. apply Z.eqb_eq in H1; apply Pos.eqb_eq in H2; subst; reflexivity.
  - apply Z.eqb_eq in H; subst; reflexivity.
Qed.

Lemma nums_same_eq : forall l1 l2, nums_same l1 l2 = true -> l1 = l2.
Proof.
  induction l1 as [|x r IH]; intros [|y r2] H; simpl in H; try discriminate; [reflexivity|].
  apply andb_prop in H; destruct H as [H1 H2]. apply num_same_eq in H1. apply IH in H2. subst; reflexivity.
Qed.

Section SvInd.
  Variable P : sv -> Prop.
  Hypothesis HEmpty : P SEmpty.
  Hypothesis HUniv : P SUniv.
  Hypothesis HReals : P SReals.
  Hypothesis HRationals : P SRationals.
  Hypothesis HIntegers : P SIntegers.
  Hypothesis HNaturals : P SNaturals.
  Hypothesis HNaturals0 : P SNaturals0.
  Hypothesis HInterval : forall s e lo ro, P (SInterval s e lo ro).
  Hypothesis HFinite : forall l, P (SFinite l).
  Hypothesis HUnion : forall l, Forall P l -> P (SUnion l).
  Hypothesis HInter : forall l, Forall P l -> P (SInter l).
  Hypothesis HCompl : forall u c, P u -> P c -> P (SCompl u c).

  Fixpoint sv_ind' (s : sv) : P s :=
    let fix go (l : list sv) : Forall P l :=
      match l with
      | [] => Forall_nil P
      | x :: r => Forall_cons x (sv_ind' x) (go r)
      end in
    match s with
    | SEmpty => HEmpty | SUniv => HUniv | SReals => HReals | SRationals => HRationals
    | SIntegers => HIntegers | SNaturals => HNaturals | SNaturals0 => HNaturals0
    | SInterval s e lo ro => HInterval s e lo ro
    | SFinite l => HFinite l
    | SUnion l => HUnion l (go l)
    | SInter l => HInter l (go l)
    | SCompl u c => HCompl u c (sv_ind' u) (sv_ind' c)
    end.
End SvInd.

Fixpoint svs_same (l1 l2 : list sv) : bool :=
  match l1, l2 with
  | [], [] => true
  | x :: r1, y :: r2 => sv_same x y && svs_same r1 r2
  | _, _ => false
  end.

Lemma sv_same_union : forall l1 l2, sv_same (SUnion l1) (SUnion l2) = svs_same l1 l2.
Proof. induction l1; destruct l2; simpl; try reflexivity. Qed.
Lemma sv_same_inter : forall l1 l2, sv_same (SInter l1) (SInter l2) = svs_same l1 l2.
Proof. induction l1; destruct l2; simpl; try reflexivity. Qed.

Lemma svs_same_eq : forall l, Forall (fun a => forall b, sv_same a b = true -> a = b) l ->
    forall l', svs_same l l' = true -> l = l'.
Proof.
  induction 1 as [|x r Hx Hr IH]; intros [|y r2] H0; simpl in H0; try discriminate; [reflexivity|].
  apply andb_prop in H0; destruct H0 as [H1 H2]. f_equal; [apply Hx; assumption | apply IH; assumption].
Qed.

Lemma sv_same_eq : forall a b, sv_same a b = true -> a = b.
Proof.
  induction a using sv_ind'; intros b H0; destruct b; try (simpl in H0; discriminate); try reflexivity.
  - simpl in H0. repeat (apply andb_prop in H0; destruct H0 as [H0 ?]).
    apply num_same_eq in H0. apply num_same_eq in H2. apply eqb_prop in H1. apply eqb_prop in H. subst; reflexivity.
  - simpl in H0. apply nums_same_eq in H0; subst; reflexivity.
  - rewrite sv_same_union in H0. f_equal. exact (svs_same_eq l H l0 H0).
  - rewrite sv_same_inter in H0. f_equal. exact (svs_same_eq l H l0 H0).
  - simpl in H0. apply andb_prop in H0; destruct H0 as [H1 H2].
    f_equal; [apply IHa1 | apply IHa2]; assumption.
Qed.

Definition same_elems {A} (r l : list A) : Prop := forall x, In x r <-> In x l.

(* std::set<K, Less>::insert, guarded against a comparator that conflates two different keys: set_set
   (keys [sv]) and set_basic (keys [number]) are the two instances.  A flag-free insertion yields a
   container with exactly the elements k :: m *)
Section Container.
  Variables (K : Type) (less same : K -> K -> bool) (insert : K -> list K -> list K)
            (ins : K -> list K -> M (list K)).
  Hypothesis same_eq : forall a b, same a b = true -> a = b.
  Hypothesis insert_eq : forall k m, insert k m =
      match m with
      | [] => [k]
      | k' :: r => if less k' k then k' :: insert k r else if less k k' then k :: m else m
      end.
  Hypothesis ins_eq : forall k m,
      ins k m = flag_if (negb (existsb (same k) (insert k m))) DF_COLLISION (ret (insert k m)).

  Lemma insert_in : forall k m x, In x (insert k m) -> x = k \/ In x m.
  Proof.
    induction m as [|k' r IH]; intros x H; rewrite insert_eq in H.
    - destruct H; [left; auto|contradiction].
    - destruct (less k' k).
      + destruct H as [H|H]; [right; left; assumption|]. apply IH in H. destruct H; [left|right; right]; assumption.
      + destruct (less k k').
        * destruct H as [H|H]; [left; symmetry; exact H | right; exact H].
        * right; exact H.
  Qed.
  Lemma insert_keep : forall k m x, In x m -> In x (insert k m).
  Proof.
    induction m as [|k' r IH]; intros x H; rewrite insert_eq; simpl in *; [contradiction|].
    destruct (less k' k).
    - destruct H; [left; assumption|right; apply IH; assumption].
    - destruct (less k k'); simpl; tauto.
  Qed.

  Lemma ins_same : forall k m r, ins k m = (Ok r, []) -> same_elems r (k :: m).
  Proof using same_eq insert_eq ins_eq.
    intros k m r H. rewrite ins_eq in H. minv. subst.
    apply negb_false_iff in Hg. apply existsb_exists in Hg. destruct Hg as [y [Hy E]]. apply same_eq in E. subst y.
    intro x; split; intro Hx.
    - apply insert_in in Hx. destruct Hx as [->|Hx]; simpl; auto.
    - destruct Hx as [<-|Hx]; [assumption|apply insert_keep; assumption].
  Qed.
End Container.

(* insertion of a range *)
Lemma ins_all_same : forall {K} (ins : K -> list K -> M (list K)) (ins_all : list K -> list K -> M (list K)),
    (forall k m r, ins k m = (Ok r, []) -> same_elems r (k :: m)) ->
    (forall l m, ins_all l m = match l with [] => ret m | k :: r => m' <- ins k m ;; ins_all r m' end) ->
    forall l m r, ins_all l m = (Ok r, []) -> same_elems r (l ++ m).
Proof.
  intros K ins ins_all ins_ok ins_all_eq.
  induction l as [|k t IH]; intros m r H; rewrite ins_all_eq in H.
  - minv. intro x; simpl; tauto.
  - minv. apply ins_ok in Hm. apply IH in Hk.
    intro y. rewrite (Hk y). rewrite !in_app_iff. rewrite (Hm y). simpl. tauto.
Qed.

Lemma ss_ins_ok : forall k m r, ss_ins k m = (Ok r, []) -> same_elems r (k :: m).
Proof. apply (ins_same sv sv_less sv_same ss_insert); [exact sv_same_eq|intros k []; reflexivity|reflexivity]. Qed.
Lemma nb_ins_ok : forall k m r, nb_ins k m = (Ok r, []) -> same_elems r (k :: m).
Proof. apply (ins_same number num_less num_same nb_insert); [exact num_same_eq|intros k []; reflexivity|reflexivity]. Qed.
Lemma ss_ins_all_ok : forall l m r, ss_ins_all l m = (Ok r, []) -> same_elems r (l ++ m).
Proof. apply (ins_all_same ss_ins); [exact ss_ins_ok|intros []; reflexivity]. Qed.
Lemma nb_ins_all_ok : forall l m r, nb_ins_all l m = (Ok r, []) -> same_elems r (l ++ m).
Proof. apply (ins_all_same nb_ins); [exact nb_ins_ok|intros []; reflexivity]. Qed.

(* boolean quantifiers only depend on the elements *)
Lemma existsb_same_elems : forall {A} (f : A -> bool) r l, same_elems r l -> existsb f r = existsb f l.
Proof.
  intros A f r l H. apply eq_true_iff_eq. rewrite !existsb_exists.
  split; intros [x [Hx Fx]]; exists x; (split; [apply H, Hx|exact Fx]).
Qed.
Lemma forallb_same_elems : forall {A} (f : A -> bool) r l, same_elems r l -> forallb f r = forallb f l.
Proof.
  intros A f r l H. apply eq_true_iff_eq. rewrite !forallb_forall.
  split; intros Hf x Hx; apply Hf, H, Hx.
Qed.
Lemma forallb_same_true : forall {A} (f : A -> bool) r l, same_elems r l -> forallb f l = true -> forallb f r = true.
Proof. intros A f r l H Hl. rewrite (forallb_same_elems f r l H). exact Hl. Qed.

Lemma make_union_In : forall p l, In_set p (make_union l) = existsb (In_set p) l.
Proof.
  intros p [|x [|y r]]; simpl; try reflexivity. rewrite orb_false_r; reflexivity.
Qed.
Lemma make_inter_In : forall p l, In_set p (make_inter l) = forallb (In_set p) l.
Proof.
  intros p [|x [|y r]]; simpl; try reflexivity. rewrite andb_true_r; reflexivity.
Qed.
Lemma make_union_wf : forall l, l <> [] -> forallb wf_set l = true -> wf_set (make_union l) = true.
Proof. intros [|x [|y r]] Hn H; simpl in *; auto; try congruence. rewrite andb_true_r in H; assumption. Qed.
Lemma wf_union_inv : forall l, wf_set (SUnion l) = true -> l <> [] /\ forallb wf_set l = true.
Proof. intros [|x r] H; simpl in H; [discriminate|]. split; [discriminate|exact H]. Qed.
Lemma same_elems_cons_ne : forall {A} (r : list A) k m, same_elems r (k :: m) -> r <> [].
Proof. intros A r k m H Hr. subst r. destruct (H k) as [_ H1]. apply H1. left; reflexivity. Qed.
Lemma make_inter_wf : forall l, forallb wf_set l = true -> wf_set (make_inter l) = true.
Proof. intros [|x [|y r]] H; simpl in *; auto. rewrite andb_true_r in H; assumption. Qed.

Lemma finiteset_In : forall p l, In_set p (finiteset l) = in_finite l p.
Proof. intros p [|x r]; reflexivity. Qed.
Lemma finiteset_wf : forall l, forallb num_ok l = true -> wf_set (finiteset l) = true.
Proof. intros [|x r] H; simpl in *; auto. Qed.

Lemma ss_make_ok : forall l r, ss_make l = (Ok r, []) -> same_elems r l.
Proof.
  intros l r H. unfold ss_make in H. apply ss_ins_all_ok in H. rewrite app_nil_r in H. assumption.
Qed.
Lemma nb_make_ok : forall l r, nb_make l = (Ok r, []) -> same_elems r l.
Proof.
  intros l r H. unfold nb_make in H. apply nb_ins_all_ok in H. rewrite app_nil_r in H. assumption.
Qed.

(* union and intersection side by side: [u = true] stands for union (some member, ||, Union objects),
   [u = false] for intersection (every member, &&, Intersection objects) *)
Definition bop (u : bool) : bool -> bool -> bool := if u then orb else andb.
Definition quant (u : bool) {A} (f : A -> bool) (l : list A) : bool := if u then existsb f l else forallb f l.
Definition make_set (u : bool) : list sv -> sv := if u then make_union else make_inter.
Definition mk_set2 (u : bool) : sv -> sv -> M sv := if u then mk_union2 else mk_inter2.

Lemma quant_cons : forall u {A} (f : A -> bool) x l, quant u f (x :: l) = bop u (f x) (quant u f l).
Proof. intros []; reflexivity. Qed.
Lemma quant_app : forall u {A} (f : A -> bool) l l', quant u f (l ++ l') = bop u (quant u f l) (quant u f l').
Proof. intros [] A f l l'; [apply existsb_app|apply forallb_app]. Qed.
Lemma quant_same_elems : forall u {A} (f : A -> bool) r l, same_elems r l -> quant u f r = quant u f l.
Proof. intros []; [exact @existsb_same_elems|exact @forallb_same_elems]. Qed.
Lemma quant_pair : forall u {A} (f : A -> bool) a b, quant u f [a; b] = bop u (f a) (f b).
Proof. intros [] A f a b; simpl; [rewrite orb_false_r|rewrite andb_true_r]; reflexivity. Qed.
Lemma make_set_In : forall u p l, In_set p (make_set u l) = quant u (In_set p) l.
Proof. intros []; [exact make_union_In|exact make_inter_In]. Qed.
Lemma make_set_wf : forall u l, l <> [] -> forallb wf_set l = true -> wf_set (make_set u l) = true.
Proof. intros [] l Hn H; [apply make_union_wf; assumption|apply make_inter_wf; exact H]. Qed.

Lemma mk_set2_ok : forall u a b r, wf_set a = true -> wf_set b = true -> mk_set2 u a b = (Ok r, []) ->
    wf_set r = true /\ forall p, In_set p r = bop u (In_set p a) (In_set p b).
Proof.
  intros u a b r Ha Hb H.
  assert (H' : (l <- ss_make [a; b] ;; ret (make_set u l)) = (Ok r, [])) by (destruct u; exact H).
  minv. apply ss_make_ok in Hm. split.
  - apply make_set_wf; [eapply same_elems_cons_ne; eauto|].
    apply (forallb_same_true wf_set x [a; b] Hm). simpl. rewrite Ha, Hb. reflexivity.
  - intro p. rewrite make_set_In, (quant_same_elems u (In_set p) x [a; b] Hm). apply quant_pair.
Qed.
