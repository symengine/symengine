(* C27 proofs, layer 8: sup and inf (SupVisitor / InfVisitor): the returned number bounds every member,
   and a finite returned number is attained or approached by members. *)
From Coq Require Import QArith Lia.
From SE Require Import C27.SetSpec C27.SetOrder C27.SetNum C27.SetCont C27.SetIvl C27.SetFin C27.SetInt.

(* sup and inf are mirror images, and are treated once: [d = true] stands for sup (nmax, the end of an
   interval, upper bounds, members just below), [d = false] for inf (nmin, the start, lower bounds,
   members just above) *)
Definition extremum (d : bool) : sv -> res number := if d then sup else inf.
Definition dext (d : bool) : number -> number -> number := if d then nmax else nmin.

Lemma dext_spec : forall d x y, num_ok x = true -> num_ok y = true ->
    (dext d x y = x \/ dext d x y = y) /\ dle d (npos x) (npos (dext d x y)) /\ dle d (npos y) (npos (dext d x y)).
Proof.
  intros [] x y Hx Hy; unfold dext, dle.
  - destruct (nmax_spec x y Hx Hy) as [[L ->]|[L ->]]; (split; [auto|split; pord]).
  - destruct (nmin_spec x y Hx Hy) as [[L ->]|[L ->]]; (split; [auto|split; pord]).
Qed.

(* max / min of a list of numbers as functions.cpp folds them *)
Lemma fold_dext_spec : forall d r x, num_ok x = true -> forallb num_ok r = true ->
    let m := fold_left (dext d) r x in
    num_ok m = true /\ In m (x :: r) /\ forall a, In a (x :: r) -> dle d (npos a) (npos m).
Proof.
  induction r as [|y t IH]; intros x Hx Hr; simpl.
  - split; [exact Hx|]. split; [left; reflexivity|]. intros a [<-|[]]. apply dle_eq. pord.
  - simpl in Hr. apply andb_prop in Hr. destruct Hr as [Hy Ht].
    destruct (dext_spec d x y Hx Hy) as [Hp [Bx By]].
    assert (Hm : num_ok (dext d x y) = true) by (destruct Hp as [-> | ->]; assumption).
    destruct (IH (dext d x y) Hm Ht) as [I1 [I2 I3]].
    split; [exact I1|]. split.
    + destruct I2 as [I2|I2]; [|right; right; exact I2].
      destruct Hp as [E|E]; [left|right; left]; (transitivity (dext d x y); [symmetry; exact E|exact I2]).
    + intros a Ha. pose proof (I3 (dext d x y) (or_introl eq_refl)) as Hm'.
      destruct Ha as [<-|[<-|Ha]];
        [exact (dle_trans d _ _ _ Bx Hm')|exact (dle_trans d _ _ _ By Hm')|apply I3; right; exact Ha].
Qed.

Lemma collect_res_map : forall {A} (g : A -> res number) l v, collect_res (map g l) = Ok v ->
    Forall2 (fun s y => g s = Ok y) l v.
Proof.
  induction l as [|s t IH]; intros v H; simpl in H.
  - inversion H. constructor.
  - destruct (g s) eqn:Es; try discriminate. destruct (collect_res (map g t)) eqn:E; try discriminate.
    inversion H; subst. constructor; [exact Es|apply IH; reflexivity].
Qed.
Lemma Forall2_in_l : forall {A B} (P : A -> B -> Prop) l v, Forall2 P l v ->
    forall s, In s l -> exists y, In y v /\ P s y.
Proof.
  induction 1 as [|s y l v Hsy _ IH]; intros s' Hin; [contradiction|].
  destruct Hin as [<-|Hin]; [exists y; simpl; auto|].
  destruct (IH s' Hin) as [y' [Hy' Hp]]. exists y'. simpl; auto.
Qed.
Lemma Forall2_in_r : forall {A B} (P : A -> B -> Prop) l v, Forall2 P l v ->
    forall y, In y v -> exists s, In s l /\ P s y.
Proof.
  induction 1 as [|s y l v Hsy _ IH]; intros y' Hin; [contradiction|].
  destruct Hin as [<-|Hin]; [exists s; simpl; auto|].
  destruct (IH y' Hin) as [s' [Hs' Hp]]. exists s'. simpl; auto.
Qed.

(* what the visitors compute on the three classes with members *)
Lemma extremum_interval : forall d s e lo ro, extremum d (SInterval s e lo ro) = Ok (if d then e else s).
Proof. intros []; reflexivity. Qed.
Lemma extremum_finite : forall d l, extremum d (SFinite l) =
    match l with [] => ErrExn EXN_SYMENGINE | y :: r => Ok (fold_left (dext d) r y) end.
Proof. intros []; reflexivity. Qed.
Lemma extremum_union : forall d l, extremum d (SUnion l) =
    match collect_res (map (extremum d) l) with
    | Ok [] => ErrExn EXN_SYMENGINE | Ok (y :: r) => Ok (fold_left (dext d) r y)
    | ErrOOB i n => ErrOOB i n | ErrFuel => ErrFuel | ErrExn c => ErrExn c
    end.
Proof. intros [] l; simpl; destruct (collect_res _) as [[|y r]| | |]; reflexivity. Qed.

(* sup / inf of a Union: the extremum of the members' values; one member has it, the others are within it *)
Lemma union_extremum : forall d l x, extremum d (SUnion l) = Ok x ->
    (forall s y, In s l -> extremum d s = Ok y -> num_ok y = true) ->
    num_ok x = true /\ (exists s, In s l /\ extremum d s = Ok x) /\
    forall s, In s l -> exists y, extremum d s = Ok y /\ dle d (npos y) (npos x).
Proof.
  intros d l x H Hok. rewrite extremum_union in H.
  destruct (collect_res (map (extremum d) l)) as [v| | |] eqn:E; try discriminate.
  apply collect_res_map in E.
  destruct v as [|y ys]; [discriminate|]. inversion H; subst; clear H.
  assert (Hv : forallb num_ok (y :: ys) = true).
  { apply forallb_forall. intros z Hz. destruct (Forall2_in_r _ _ _ E z Hz) as [s [Hs Hg]]. exact (Hok s z Hs Hg). }
  simpl in Hv. apply andb_prop in Hv. destruct Hv as [Hy Hys].
  destruct (fold_dext_spec d ys y Hy Hys) as [M1 [M2 M3]]. split; [exact M1|]. split.
  - exact (Forall2_in_r _ _ _ E _ M2).
  - intros s Hs. destruct (Forall2_in_l _ _ _ E s Hs) as [z [Hz Hg]]. exists z. split; [exact Hg|exact (M3 z Hz)].
Qed.

(* the returned number is a bound *)
Theorem extremum_bound : forall d S x, wf_set S = true -> extremum d S = Ok x ->
    num_ok x = true /\ forall p, In_set p S = true -> dle d (ppos p) (npos x).
Proof.
  induction S as [| | | | | | | s e lo ro | l | l IHF | l IHF | u IHu c IHc] using sv_ind'; intros x Hwf H;
    try (destruct d; discriminate H);
    try (destruct d; inversion H; subst; (split; [reflexivity|]); intros p _; [apply pos_top|apply pos_bot]; fail).
  - (* Naturals: above 1 *) destruct d; inversion H; subst; (split; [reflexivity|]); intros p Hp; [apply pos_top|].
    cbn [In_set] in Hp. destruct (int_point p (in_naturals_integers p Hp)) as [k Hk].
    destruct (at_int_point k p Hk) as [_ [A2 _]]. rewrite Hp in A2. symmetry in A2. apply Z.ltb_lt in A2.
    unfold dle. rewrite npos_int. assert (ipos 1 <=p ipos k) by (apply ipos_le; lia). pord.
  - (* Naturals0: above 0 *) destruct d; inversion H; subst; (split; [reflexivity|]); intros p Hp; [apply pos_top|].
    cbn [In_set] in Hp. destruct (int_point p (in_naturals0_integers p Hp)) as [k Hk].
    destruct (at_int_point k p Hk) as [_ [_ A3]]. rewrite Hp in A3. symmetry in A3. apply Z.leb_le in A3.
    unfold dle. rewrite npos_int. assert (ipos 0 <=p ipos k) by (apply ipos_le; lia). pord.
  - (* Interval: its end / start *) rewrite extremum_interval in H. inversion H; subst.
    pose proof (wf_interval_inv _ _ _ _ Hwf) as [Hs [He _]].
    split; [destruct d; assumption|]. intros p Hp. apply in_interval_between in Hp. destruct d; apply Hp.
  - (* FiniteSet *) rewrite extremum_finite in H. destruct l as [|a t]; [discriminate|]. inversion H; subst.
    simpl in Hwf. apply andb_prop in Hwf. destruct Hwf as [Ha Ht].
    destruct (fold_dext_spec d t a Ha Ht) as [M1 [_ M3]]. split; [exact M1|].
    intros p Hp. cbn [In_set] in Hp. apply in_finite_iff in Hp. destruct Hp as [b [Hb Hbp]].
    apply (dle_trans d _ (npos b)); [apply dle_eq; pord|exact (M3 b Hb)].
  - (* Union *) apply wf_union_inv in Hwf. destruct Hwf as [_ Hl]. rewrite Forall_forall in IHF.
    destruct (union_extremum d l x H) as [M1 [_ M3]].
    { intros s y Hs Hy. exact (proj1 (IHF s Hs y (forallb_In wf_set l s Hl Hs) Hy)). }
    split; [exact M1|]. intros p Hp. simpl in Hp. apply existsb_exists in Hp. destruct Hp as [s [Hs Hps]].
    destruct (M3 s Hs) as [y [Hy Hyx]].
    exact (dle_trans d _ _ _ (proj2 (IHF s Hs y (forallb_In wf_set l s Hl Hs) Hy) p Hps) Hyx).
Qed.

(* a finite sup / inf is attained or approached *)
Definition reached (d : bool) (S : sv) (v : Q) : bool := In_set (PAt v) S || In_set (PNear v (negb d) false) S.

Theorem extremum_tight : forall d S x v, wf_set S = true -> extremum d S = Ok x -> qval x = Some v ->
    reached d S v = true.
Proof.
  induction S as [| | | | | | | s e lo ro | l | l IHF | l IHF | u IHu c IHc] using sv_ind'; intros x v Hwf H Hv;
    try (destruct d; discriminate H);
    try (destruct d; inversion H; subst; first [discriminate Hv|inversion Hv; reflexivity]).
  - (* Interval: the rational points just below the end / just above the start *)
    rewrite extremum_interval in H. inversion H; subst. pose proof (wf_interval_inv _ _ _ _ Hwf) as [Hs [He Hlt]].
    unfold reached. apply orb_true_iff. right. cbn [In_set]. rewrite in_interval_rays.
    destruct (ray_near true s v lo Hs) as [S1 S2]. destruct (ray_near false e v ro He) as [E1 E2].
    destruct d; cbn [negb ppos]; [rewrite S2, E2|rewrite S1, E1];
      rewrite (npos_finite_ppos _ v Hv) in *; cbn [ppos] in *; unfold ray; cmp_cases; reflexivity.
  - (* FiniteSet: the maximum / minimum is a member *)
    rewrite extremum_finite in H. destruct l as [|a t]; [discriminate|]. inversion H; subst.
    simpl in Hwf. apply andb_prop in Hwf. destruct Hwf as [Ha Ht].
    destruct (fold_dext_spec d t a Ha Ht) as [_ [M2 _]].
    unfold reached. apply orb_true_iff. left. cbn [In_set]. apply in_finite_iff.
    exists (fold_left (dext d) t a). split; [exact M2|]. rewrite (npos_finite_ppos _ v Hv). pord.
  - (* Union: the member whose sup / inf is the extremum *)
    apply wf_union_inv in Hwf. destruct Hwf as [_ Hl]. rewrite Forall_forall in IHF.
    destruct (union_extremum d l x H) as [_ [[s [Hs Hsup]] _]].
    { intros s y Hs Hy. exact (proj1 (extremum_bound d s y (forallb_In wf_set l s Hl Hs) Hy)). }
    specialize (IHF s Hs _ v (forallb_In wf_set l s Hl Hs) Hsup Hv).
    unfold reached in *. apply orb_true_iff in IHF. apply orb_true_iff.
    destruct IHF as [I|I]; [left|right]; simpl; apply existsb_exists; exists s; split; assumption.
Qed.
