(* C27 -- the property theorems, stated on the entry points the check runs (op_* of SetModel.v).
   Hypothesis of every positive theorem: the operands are well-formed sets of the fragment and the
   model returned a set WITHOUT raising a defect flag (the guard classes DF_* of the model:
   comparator collision, unsorted container, recursion depth, adjacent members in boundary(Union)). *)
From Coq Require Import QArith Lia.
From SE Require Import C27.SetSpec C27.SetOrder C27.SetNum C27.SetCont C27.SetIvl C27.SetFin
     C27.SetProofs C27.SetTopo C27.SetSup.
Local Open Scope m_scope.

Theorem union_correct : forall A B R, wf_set A = true -> wf_set B = true ->
    op_munion A B = (Ok R, []) -> wf_set R = true /\ union_spec A B R.
Proof.
  intros A B R HA HB H. exact (run_ok FUEL (CUnion A B) R H (andb_true_intro (conj HA HB))).
Qed.

Theorem intersection_correct : forall A B R, wf_set A = true -> wf_set B = true ->
    op_misect A B = (Ok R, []) -> wf_set R = true /\ inter_spec A B R.
Proof.
  intros A B R HA HB H. exact (run_ok FUEL (CInter A B) R H (andb_true_intro (conj HA HB))).
Qed.

(* A->set_complement(U) = U \ A, and set_complement(U, A) *)
Theorem complement_correct : forall A U R, wf_set A = true -> wf_set U = true ->
    (op_mcompl A U = (Ok R, []) \/ op_fcompl U A = (Ok R, [])) -> wf_set R = true /\ compl_spec U A R.
Proof.
  intros A U R HA HU H. assert (H' : run FUEL (CCompl A U) = (Ok R, [])) by (destruct H; exact H).
  exact (run_ok FUEL (CCompl A U) R H' (andb_true_intro (conj HA HU))).
Qed.

Theorem complement_helper_correct : forall A U R, wf_set A = true -> wf_set U = true ->
    op_helper A U = (Ok R, []) -> wf_set R = true /\ compl_spec U A R.
Proof.
  intros A U R HA HU H. exact (run_ok FUEL (CHelper A U) R H (andb_true_intro (conj HA HU))).
Qed.

Theorem free_union_correct : forall l R, forallb wf_set l = true ->
    op_funion l = (Ok R, []) -> wf_set R = true /\ unions_spec l R.
Proof.
  intros l R Hl H. unfold op_funion in H. minv. apply ss_make_ok in Hm.
  destruct (run_ok FUEL (CFUnion x) R Hk) as [Hw Hs]; [exact (forallb_same_true wf_set x l Hm Hl)|].
  split; [exact Hw|]. intro p. simpl in Hs. rewrite Hs. apply existsb_same_elems. exact Hm.
Qed.

Theorem free_intersection_correct : forall l R, forallb wf_set l = true ->
    op_fisect l = (Ok R, []) -> wf_set R = true /\ inters_spec l R.
Proof.
  intros l R Hl H. unfold op_fisect in H. minv. apply ss_make_ok in Hm.
  destruct (run_ok FUEL (CFInter x) R Hk) as [Hw Hs]; [exact (forallb_same_true wf_set x l Hm Hl)|].
  split; [exact Hw|]. intro p. simpl in Hs. rewrite Hs. apply forallb_same_elems. exact Hm.
Qed.

(* contains(number) is exactly the membership of the number *)
Theorem contains_sound : forall S a q, wf_set S = true -> num_ok a = true -> qval a = Some q ->
    contains S a = In_set (PAt q) S.
Proof.
  intros S a q HS Ha Hq. apply contains_In; auto.
  rewrite (npos_finite_ppos a q Hq). apply PosO.eq_iff. apply pos_cmp_refl.
Qed.

(* closure / interior / boundary: proved for the operands that are not Union / Intersection / Complement nodes *)
Theorem closure_correct_partial : forall S R, wf_set S = true -> simple S = true ->
    op_closure S = (Ok R, []) -> wf_set R = true /\ closure_spec S R.
Proof.
  intros S R HS Hsim H. unfold op_closure in H.
  destruct (run_ok FUEL (CClosure S) R H HS) as [Hw Hs]. split; [exact Hw|exact (Hs Hsim)].
Qed.
Theorem interior_correct_partial : forall S R, wf_set S = true -> simple S = true ->
    op_interior S = (Ok R, []) -> wf_set R = true /\ interior_spec S R.
Proof.
  intros S R HS Hsim H. unfold op_interior in H.
  destruct (run_ok FUEL (CInterior S) R H HS) as [Hw Hs]. split; [exact Hw|exact (Hs Hsim)].
Qed.
Theorem boundary_correct_partial : forall S R, wf_set S = true -> simple S = true ->
    op_boundary S = (Ok R, []) -> wf_set R = true /\ boundary_spec S R.
Proof.
  intros S R HS Hsim H. unfold op_boundary in H.
  destruct (run_ok FUEL (CBoundary S) R H HS) as [Hw Hs]. split; [exact Hw|exact (Hs Hsim)].
Qed.

(* sup / inf: the returned number bounds every member, and a finite returned number is a member or
   the rational numbers just below (above) it are members, so that no smaller (larger) bound exists.
   Not proved: that the set is unbounded when +-oo is returned. *)
Theorem sup_inf_correct_partial : forall S x, wf_set S = true ->
    (sup S = Ok x ->
       upper_bound S x /\
       forall v, qval x = Some v -> In_set (PAt v) S || In_set (PNear v false false) S = true) /\
    (inf S = Ok x ->
       lower_bound S x /\
       forall v, qval x = Some v -> In_set (PAt v) S || In_set (PNear v true false) S = true).
Proof.
  intros S x HS. split; intro H; split.
  - intros p Hp. destruct (extremum_bound true S x HS H) as [_ Hb]. specialize (Hb p Hp). unfold dle in Hb.
    rewrite cmp_np_pos. intro E. apply PosO.lt_iff in E. pord.
  - intros v Hv. exact (extremum_tight true S x v HS H Hv).
  - intros p Hp. destruct (extremum_bound false S x HS H) as [_ Hb]. specialize (Hb p Hp). unfold dle in Hb.
    rewrite cmp_np_pos. intro E. assert (ppos p <p npos x).
    { apply PosO.lt_iff. rewrite pos_cmp_antisym, E. reflexivity. }
    pord.
  - intros v Hv. exact (extremum_tight false S x v HS H Hv).
Qed.

(* the guard classes are needed *)
Definition i13 : sv := SInterval (NInt 1) (NInt 3) false true.      (* [1,3) *)
Definition i35 : sv := SInterval (NInt 3) (NInt 5) false false.     (* [3,5] *)

(* boundary of a Union whose members touch: the common point is reported although it is interior *)
Theorem boundary_union_refuted : exists S R,
    wf_set S = true /\ op_boundary S = (Ok R, [DF_BOUNDARY_UNION_SHARED]) /\
    exists p, In_set p R <> in_closure p S && negb (in_interior p S).
Proof.
  exists (SUnion [i13; i35]). eexists. split; [reflexivity|]. split; [vm_compute; reflexivity|].
  exists (PAt (3 # 1)). vm_compute. discriminate.
Qed.

(* the mutual recursion of the set operations has no decreasing measure: it can run out of any depth.
   The union of Rationals n [0,1] with Rationals comes back to itself four calls deeper:
     set_union({Q, a})  ->  Q.set_union(a)  ->  a.set_union(Q)  ->  set_intersection({Q, Q u [0,1]})
                        ->  set_union({Q n Q, [0,1] n Q}) = set_union({Q, a}),
   the calls beside this chain returning within two levels. *)
Definition rec_witness_a : sv := SInter [SRationals; SInterval (NInt 0) (NInt 1) false false].

Section Cycle.
  Local Notation I01 := (SInterval (NInt 0) (NInt 1) false false).
  Local Notation U := (SUnion [SRationals; I01]).
  Local Notation l0 := [SRationals; rec_witness_a].

  (* the insertions into the containers on the way: Rationals has the least key *)
  Let ins1 : ss_ins SRationals [] = (Ok [SRationals], []). Proof. reflexivity. Qed.
  Let ins2 : ss_ins U [SRationals] = (Ok [SRationals; U], []). Proof. vm_compute; reflexivity. Qed.
  Let ins3 : ss_ins rec_witness_a [SRationals] = (Ok l0, []). Proof. vm_compute; reflexivity. Qed.
  Let ins4 : ss_ins SRationals [SRationals] = (Ok [SRationals], []). Proof. vm_compute; reflexivity. Qed.
  Let ins5 : ss_ins SRationals [I01] = (Ok [SRationals; I01], []). Proof. vm_compute; reflexivity. Qed.
  Let ins6 : ss_ins I01 [] = (Ok [I01], []). Proof. reflexivity. Qed.

  Variable rec : call -> M sv.

  (* one level of the model evaluated with the recursive calls left standing: the containers are
     replaced by the values above, a returned value is passed on *)
  Local Opaque mbind ss_ins.
  Ltac go := repeat (progress (rewrite ?ins1, ?ins2, ?ins3, ?ins4, ?ins5, ?ins6, ?mbind_ok_nil, ?mbind_ret_l; cbn)).

  Lemma step_funion : rec (CUnion SEmpty SRationals) = (Ok SRationals, []) ->
      dispatch rec (CFUnion l0) = rec (CUnion SRationals rec_witness_a).
  Proof. intro H1. cbn. unfold free_union. go. rewrite H1. go. apply mbind_ret_r. Qed.

  Lemma step_union : rec (CUnion SRationals SRationals) = (Ok SRationals, []) ->
      rec (CUnion I01 SRationals) = (Ok U, []) ->
      dispatch rec (CUnion rec_witness_a SRationals) = rec (CFInter [SRationals; U]).
  Proof. intros H1 H2. cbn. unfold inter_union. go. rewrite H1. go. rewrite H2. go. reflexivity. Qed.

  Lemma step_inter : rec (CFInter [SRationals]) = (Ok SRationals, []) ->
      rec (CFInter [SRationals; I01]) = (Ok rec_witness_a, []) ->
      dispatch rec (CFInter [SRationals; U]) = rec (CFUnion l0).
  Proof.
    intros H1 H2. cbn. go. unfold free_inter_rest. cbn. unfold free_inter2, ss_make. go.
    rewrite H1. go. rewrite H1. go. rewrite H2. go. reflexivity.
  Qed.

  Lemma val_union_empty : dispatch rec (CUnion SEmpty SRationals) = (Ok SRationals, []).
  Proof. reflexivity. Qed.
  Lemma val_union_qq : dispatch rec (CUnion SRationals SRationals) = (Ok SRationals, []).
  Proof. reflexivity. Qed.
  Lemma val_union_iq : dispatch (dispatch rec) (CUnion I01 SRationals) = (Ok U, []).
  Proof. cbn. unfold mk_union2, ss_make. cbn. go. reflexivity. Qed.
  Lemma val_inter_q : dispatch rec (CFInter [SRationals]) = (Ok SRationals, []).
  Proof. cbn. go. reflexivity. Qed.
  Lemma val_inter_qi : dispatch (dispatch rec) (CFInter [SRationals; I01]) = (Ok rec_witness_a, []).
  Proof. cbn. go. unfold mk_inter2, ss_make. cbn. go. reflexivity. Qed.
End Cycle.

Lemma cycle_step : forall n,
    run (S (S (S (S (S (S n)))))) (CFUnion [SRationals; rec_witness_a])
    = run (S (S n)) (CFUnion [SRationals; rec_witness_a]).
Proof.
  intro n.
  transitivity (run (S (S (S (S (S n))))) (CUnion SRationals rec_witness_a)).
  { exact (step_funion (run (S (S (S (S (S n)))))) (val_union_empty (run (S (S (S (S n))))))). }
  transitivity (run (S (S (S n)))
                  (CFInter [SRationals; SUnion [SRationals; SInterval (NInt 0) (NInt 1) false false]])).
  { exact (step_union (run (S (S (S n)))) (val_union_qq (run (S (S n)))) (val_union_iq (run (S n)))). }
  exact (step_inter (run (S (S n))) (val_inter_q (run (S n))) (val_inter_qi (run n))).
Qed.

Theorem recursion_unbounded : forall fuel,
    run fuel (CFUnion [SRationals; rec_witness_a]) = (ErrExn EXN_STACK, [DF_RECURSION]).
Proof.
  induction fuel as [n IH] using (well_founded_induction lt_wf).
  do 6 (destruct n as [|n]; [vm_compute; reflexivity|]).
  rewrite cycle_step. apply IH. lia.
Qed.

Theorem unbounded_recursion_refuted :
    wf_set rec_witness_a = true /\
    op_funion [rec_witness_a; SRationals] = (ErrExn EXN_STACK, [DF_RECURSION]).
Proof.
  split; [reflexivity|]. unfold op_funion.
  replace (ss_make [rec_witness_a; SRationals]) with (@ret (list sv) [SRationals; rec_witness_a])
    by (vm_compute; reflexivity).
  rewrite mbind_ret_l. apply recursion_unbounded.
Qed.
