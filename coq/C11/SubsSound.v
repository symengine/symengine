(* C11 -- value preservation of substitution for symbol keys: when the guarded run of the visitor
   (C11/SubsGuardedOps.v) returns a value r for the expression x and the map sd, then under EVERY valuation rho
   the value of r equals the value of x under the valuation that sends each symbol found in sd to the value of
   its replacement ([subst_val]) and agrees with rho elsewhere.  Q(i) semantics of Expr/Denote.v. *)
From SE Require Import C11.SubsGuardedOps C09.ExpandSound ExpSubs.QiRing Expr.DenotePow.
From Coq Require Import QArith Lia Setoid Morphisms.
Local Open Scope Z_scope.
Local Open Scope res_scope.

(* the valuation after substitution *)
Definition subst_val (rho rhoc : list N -> qi) (sd : mdict) (name : list N) : qi :=
  match mlookup (ESym name) sd with
  | Some (_, v) => denote rho rhoc v
  | None => rho name
  end.

Fixpoint qprod {B : Type} (g : B -> qi) (l : list B) : qi :=
  match l with
  | [] => qi_one
  | p :: r => qi_mul (g p) (qprod g r)
  end.

Lemma fold_val : forall A B (V : A -> qi) (F : A -> B -> res A) (g : B -> qi) l,
  (forall a p a', In p l -> F a p = Ok a' -> qi_eq (V a') (qi_add (V a) (g p))) ->
  forall a a', fold_res F l a = Ok a' -> qi_eq (V a') (qi_add (V a) (qsum g l)).
Proof.
  intros A B V F g l. induction l as [|p l IH]; intros H a a' E; cbn [fold_res qsum] in *.
  - injection E as <-. ring.
  - apply bind_ok in E. destruct E as (a1 & E1 & E).
    rewrite (IH (fun a q a' Hq => H a q a' (or_intror Hq)) a1 a' E), (H a p a1 (or_introl eq_refl) E1). ring.
Qed.
Lemma fold_prod : forall A B (V : A -> qi) (F : A -> B -> res A) (g : B -> qi) l,
  (forall a p a', In p l -> F a p = Ok a' -> qi_eq (V a') (qi_mul (V a) (g p))) ->
  forall a a', fold_res F l a = Ok a' -> qi_eq (V a') (qi_mul (V a) (qprod g l)).
Proof.
  intros A B V F g l. induction l as [|p l IH]; intros H a a' E; cbn [fold_res qprod] in *.
  - injection E as <-. ring.
  - apply bind_ok in E. destruct E as (a1 & E1 & E).
    rewrite (IH (fun a q a' Hq => H a q a' (or_intror Hq)) a1 a' E), (H a p a1 (or_introl eq_refl) E1). ring.
Qed.

Section Sound.
  Variables rho rhoc : list N -> qi.
  Variable sd : mdict.
  Notation den := (denote rho rhoc).
  Notation wp := (wprod rho rhoc).
  Notation rho' := (subst_val rho rhoc sd).
  Notation den' := (denote (subst_val rho rhoc sd) rhoc).
  Notation G := guarded_sops.

  Lemma c_datn : forall st exp t st', gs_datn st exp t = Ok st' ->
    exists z, exp = ENum (NInt z) /\ 0 < z /\
      qi_eq (qi_mul (wp (snd st')) (qval (fst st'))) (qi_mul (qi_mul (wp (snd st)) (qval (fst st))) (qi_powz (den t) z)).
  Proof.
    intros [c d] exp t st' H. apply guard_ok in H. destruct H as [Gd H]. cbn [fst snd] in *.
    apply andb_prop in Gd. destruct Gd as [Gd Pe]. apply andb_prop in Gd. destruct Gd as [Gd T].
    apply andb_prop in Gd. destruct Gd as [Gd Pd]. apply andb_prop in Gd. destruct Gd as [Xc D].
    destruct (pos_exp_inv _ Pe) as (z & -> & Z). exists z. split; [reflexivity|]. split; [exact Z|].
    assert (Q : qexp_ok (NInt z) = true) by (apply qexp_int; lia).
    unfold a_datn, datn_fuel in H. cbn [fst snd] in H.
    replace (4 * (msize d + size (ENum (NInt z)) + size t) + 40)%nat
      with (S (4 * (msize d + size (ENum (NInt z)) + size t) + 39))%nat in H by lia.
    rewrite (rS_datn_frag _ c d (NInt z) t D T Q) in H. injection H as <-. cbn [fst snd].
    assert (PT : pow_dfn (den t) (ENum (NInt z)) = true).
    { cbn [pow_dfn]. assert (0 <=? z = true) by (apply Z.leb_le; lia). rewrite H. reflexivity. }
    destruct (dstep_value rho rhoc d t z D T Q (pos_exp_dfn rho rhoc d Pd) PT) as [V _].
    rewrite V. cbn [qpow]. ring.
  Qed.

  Lemma c_cdat : forall coef d c t coef' d', gs_cdat coef d c t = Ok (coef', d') ->
    qi_eq (qi_add (qval coef') (wsum den d')) (qi_add (qi_add (qval coef) (wsum den d)) (qi_mul (qval c) (den t))).
  Proof.
    intros coef d c t coef' d' H. apply guard_ok in H. destruct H as [Gd H].
    apply andb_prop in Gd. destruct Gd as [Gd T]. apply andb_prop in Gd. destruct Gd as [Gd Xc].
    apply andb_prop in Gd. destruct Gd as [Xcoef Db]. pose proof (dinv_b_dinv d Db) as I.
    pose proof (denote_respects' rho rhoc) as RP.
    assert (GEN : forall t0, t = t0 ->
              wf (snd (as_coef_term t0)) = true -> xok (fst (as_coef_term t0)) = true ->
              (do m <- num_mul c (fst (as_coef_term t0));
               do d'' <- add_dict_add_term d m (snd (as_coef_term t0)); Ok (coef, d'')) = Ok (coef', d') ->
              qi_eq (qi_add (qval coef') (wsum den d')) (qi_add (qi_add (qval coef) (wsum den d)) (qi_mul (qval c) (den t0)))).
    { intros t0 _ Wt Xt E. destruct (num_mul_x c _ Xc Xt) as (m & Em & Xm & Vm). rewrite Em in E. cbn [bind] in E.
      destruct (datm_spec d m _ I Wt Xm) as (d2 & E2 & _ & _ & _ & WS). rewrite E2 in E. cbn [bind] in E.
      injection E as <- <-. rewrite (WS den RP), Vm. rewrite (den_as_coef_term rho rhoc t0). ring. }
    destruct t as [n|nm|nm i|nm|tc td|mc md|pb pe|fc fa|fc fa fb|fc fl|nm fl|fc fa fb|fa fl|fa fd|fl|bb|is ie lo ro|tcd];
      try (cbn [cdat_term_ok] in T; apply andb_prop in T; destruct T as [Wt Xt]; exact (GEN _ eq_refl Wt Xt H)).
    - (* Number *)
      cbn [cdat_term_ok] in T. cbn [coef_dict_add_term] in H.
      destruct (num_mul_x c n Xc T) as (m & Em & Xm & Vm). rewrite Em in H. cbn [bind] in H.
      destruct (num_add_x coef m Xcoef Xm) as (s & Es & _ & Vs). rewrite Es in H. cbn [bind] in H.
      injection H as <- <-. rewrite Vs, Vm. cbn [denote]. ring.
    - (* Add *)
      cbn [cdat_term_ok] in T. apply andb_prop in T. destruct T as [T Ftd]. apply andb_prop in T. destruct T as [Xtc Wt].
      cbn [coef_dict_add_term] in H. destruct (num_is_one c) eqn:O1.
      + pose proof (is_one_eq c Xc O1) as ->.
        destruct (datms_spec td d I) as (d2 & E2 & _ & _ & _ & WS).
        { intros p Hp. rewrite forallb_forall in Ftd. specialize (Ftd p Hp). apply andb_prop in Ftd. exact Ftd. }
        rewrite E2 in H. cbn [bind] in H.
        destruct (num_add_x coef tc Xcoef Xtc) as (s & Es & _ & Vs). rewrite Es in H. cbn [bind] in H.
        injection H as <- <-. rewrite (WS den RP), Vs, denote_EAdd, qval_one. ring.
      + destruct (datm_spec d c _ I Wt Xc) as (d2 & E2 & _ & _ & _ & WS). rewrite E2 in H. cbn [bind] in H.
        injection H as <- <-. rewrite (WS den RP). ring.
  Qed.

  Definition pv (st : number * mdict) : qi := qi_mul (wp (snd st)) (qval (fst st)).

  Lemma den_mul_factor_old : forall (r : list N -> qi) p,
    qi_eq (denote r rhoc (mul_factor_old p)) (qpow (denote r rhoc (fst p)) (snd p)).
  Proof.
    intros r p. unfold mul_factor_old. destruct (expr_eqb (snd p) e_one) eqn:E.
    - rewrite (eqb_one_literal _ E). cbn [qpow e_one e_int]. symmetry. apply qi_powz_1.
    - reflexivity.
  Qed.

  Lemma qprod_factors : forall (r : list N -> qi) (l : mdict),
    qi_eq (qprod (fun p => denote r rhoc (mul_factor_old p)) l) (wprod r rhoc l).
  Proof.
    intros r l. induction l as [|q l IHl]; cbn [qprod]; [reflexivity|].
    rewrite IHl, (den_mul_factor_old r q). reflexivity.
  Qed.

  Lemma as_base_exp_den : forall f e b, as_base_exp f = Ok (e, b) -> (forall n, f <> ENum n) ->
    qi_eq (den f) (qpow (den b) e).
  Proof.
    intros f e b H NN. destruct f; cbn [as_base_exp] in H; try (injection H as <- <-; cbn [qpow e_one e_int]; symmetry; apply qi_powz_1).
    - exfalso. eapply NN. reflexivity.
    - injection H as <- <-. reflexivity.
  Qed.

  Lemma s_mul_factor : forall st f st', mul_factor G st f = Ok st' -> qi_eq (pv st') (qi_mul (pv st) (den f)).
  Proof.
    intros st f st' H.
    assert (GEN : (forall n, f <> ENum n) ->
              (do et <- as_base_exp f; s_datn G st (fst et) (snd et)) = Ok st' -> qi_eq (pv st') (qi_mul (pv st) (den f))).
    { intros NN E. apply bind_ok in E. destruct E as ([e b] & Eb & E). cbn [fst snd s_datn guarded_sops] in E.
      destruct (c_datn _ _ _ _ E) as (z & -> & _ & V). unfold pv. rewrite V, (as_base_exp_den f _ _ Eb NN). reflexivity. }
    destruct f as [n|nm|nm i|nm|tc td|mc md|pb pe|fc fa|fc fa fb|fc fl|nm fl|fc fa fb|fa fl|fa fd|fl|bb|is ie lo ro|tcd];
      try (apply GEN; [intros n0; discriminate | exact H]).
    - cbn [mul_factor s_nummul guarded_sops] in H. apply bind_ok in H. destruct H as (c & Ec & H). injection H as <-.
      pose proof (c_nummul _ _ _ Ec) as V. unfold pv. cbn [fst snd denote]. rewrite V. ring.
    - cbn [mul_factor s_nummul guarded_sops] in H. apply bind_ok in H. destruct H as (c & Ec & H).
      pose proof (c_nummul _ _ _ Ec) as V.
      assert (STEP : forall a q a', In q md -> s_datn G a (snd q) (fst q) = Ok a' ->
                qi_eq (pv a') (qi_mul (pv a) (qpow (den (fst q)) (snd q)))).
      { intros a q a' _ E. cbn [s_datn guarded_sops] in E. destruct (c_datn _ _ _ _ E) as (z & -> & _ & Vq).
        unfold pv. rewrite Vq. reflexivity. }
      rewrite (fold_prod _ _ pv _ _ md STEP _ _ H). unfold pv at 1. cbn [fst snd]. rewrite V, (denote_EMul' rho rhoc).
      assert (P : forall l : mdict, qprod (fun q => qpow (den (fst q)) (snd q)) l = wp l) by (induction l as [|q l IHl]; cbn [qprod]; [reflexivity | rewrite IHl; reflexivity]).
      rewrite P. unfold pv. ring.
  Qed.
End Sound.
