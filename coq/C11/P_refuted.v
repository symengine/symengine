(* C11 refutation witnesses (the model violates the unguarded statements, as the library does).
   1. substituting a symbol that does not occur / the identity map is NOT the identity on the un-flattened sum
      Add{z:1, (x+y):1} (= 2*(x+y) + z - (x+y), DESIGN row 42; replayed on the library by the check:
      known findings C11/absent-symbol-changes:nested-add-key, C11/identity-map-changes:nested-add-key);
   2. subs differs from xreplace (and from ssubs) on the single-Pow-key special case: subs(x**4, {x**2: y}) = y**2. *)
From SE Require Import C11.SubsProofs C11.Examples Expr.Wf.
(* the flattened sum z + y + x *)
Definition flat_add : expr := EAdd (NInt 0) [(sz, NInt 1); (sy, NInt 1); (sx, NInt 1)].
Theorem C11_subs_absent_refuted :
  exists (sd : mdict) (e r : expr),
    wf e = true /\ occurs_any sd e = false /\ subs_gen KSubs true sd e = Ok r /\ expr_eqb r e = false.
Proof. exists [(sw, ei 5)], nested_add, flat_add. repeat apply conj; vm_compute; reflexivity. Qed.
Theorem C11_subs_identity_refuted :
  exists (e r : expr),
    wf e = true /\ subs_gen KXreplace false [(sx, sx)] e = Ok r /\ expr_eqb r e = false.
Proof. exists nested_add, flat_add. repeat apply conj; vm_compute; reflexivity. Qed.
Theorem C11_subs_is_xreplace_refuted :
  exists (sd : mdict) (e r1 r2 : expr),
    subs_gen KSubs false sd e = Ok r1 /\ subs_gen KXreplace false sd e = Ok r2 /\ expr_eqb r1 r2 = false.
Proof.
  exists [(EPow sx (ei 2), sy)], (EPow sx (ei 4)), (EPow sy (ei 2)), (EPow sx (ei 4)).
  repeat apply conj; vm_compute; reflexivity.
Qed.
Print Assumptions C11_subs_absent_refuted.
