(* C11 -- the `visited` cache of XReplaceVisitor / SubsVisitor does not change the result.
   bvisit is parametric in the state threaded through apply and in the library calls ([bvisit_param]): one
   pass over its branches gives (a) the uncached visitor ignores the state, (b) its result does not depend on the
   fuel once the fuel exceeds the measure [wsize], (c) the cached visitor simulates the uncached one
   as long as every cache entry stores the uncached result of every node equivalent to its key, and
   (d) a run with calls that fail more often returns the same value when it returns one (C11/SubsMono.v).
   A look-up finds a stored key that is EQUIVALENT (std::map) to the queried node; results are trees
   whose Add dictionaries are listed in the order of the tree at hand, so two equivalent nodes with
   different dictionary orders would share an entry with a syntactically different result.  The theorem
   is stated for inputs on which equivalent nodes / keys are identical ([keys_consistent], a boolean
   guard); on the library the driver's oracle compares cache on / off on every case. *)
From SE Require Import C11.SubsGuards Expr.ArithMulUnique.
From Coq Require Import Lia.
Local Open Scope res_scope.

Section Rel.
  (* an error on the left is related to any result on the right (then [rr eq] is refinement); otherwise both
     sides fail in the same way *)
  Variable lax : bool.

  Definition same_err {A : Type} (a b : res A) : Prop :=
    match a, b with
    | ErrFuel, ErrFuel => True
    | ErrExn c1, ErrExn c2 => c1 = c2
    | ErrOOB i l, ErrOOB i' l' => i = i' /\ l = l'
    | _, _ => False
    end.
  Definition rr {A : Type} (RA : A -> A -> Prop) (a b : res A) : Prop :=
    match a, b with
    | Ok x, Ok y => RA x y
    | Ok _, _ => False
    | _, _ => lax = true \/ same_err a b
    end.

  Lemma rr_refl : forall {A} (a : res A), rr eq a a.
  Proof. intros A a. destruct a; cbn; auto. Qed.

  Lemma rr_bind : forall {A B} (RA : A -> A -> Prop) (RB : B -> B -> Prop) (a b : res A) (k1 k2 : A -> res B),
    rr RA a b -> (forall x y, RA x y -> rr RB (k1 x) (k2 y)) -> rr RB (bind a k1) (bind b k2).
  Proof.
    intros A B RA RB a b k1 k2 H K. destruct a as [x|i l| |c]; cbn in H |- *.
    - destruct b as [y|i l| |c]; try contradiction. apply K, H.
    - destruct H as [L|H]; [left; exact L | right]. destruct b; try contradiction; exact H.
    - destruct H as [L|H]; [left; exact L | right]. destruct b; try contradiction; exact H.
    - destruct H as [L|H]; [left; exact L | right]. destruct b; try contradiction; exact H.
  Qed.
  Lemma rr_fold : forall {A B} (F1 F2 : A -> B -> res A) l,
    (forall a p, rr eq (F1 a p) (F2 a p)) -> forall a, rr eq (fold_res F1 l a) (fold_res F2 l a).
  Proof.
    intros A B F1 F2 l H. induction l as [|p l IH]; intros a; cbn [fold_res]; [reflexivity|].
    apply (rr_bind eq); [apply H | intros x y <-; apply IH].
  Qed.

  (* results with the state threaded through apply: equal values, related states *)
  Variable R : mdict -> mdict -> Prop.
  Definition rres {A : Type} : res (A * mdict) -> res (A * mdict) -> Prop :=
    rr (fun p q => fst p = fst q /\ R (snd p) (snd q)).

  Lemma rres_ret : forall {A} (x : A) s1 s2, R s1 s2 -> rres (Ok (x, s1)) (Ok (x, s2)).
  Proof. intros. cbn. auto. Qed.

  Lemma rres_bind : forall {A B} (a b : res (A * mdict)) (k1 k2 : A * mdict -> res (B * mdict)),
    rres a b -> (forall x s1 s2, R s1 s2 -> rres (k1 (x, s1)) (k2 (x, s2))) -> rres (bind a k1) (bind b k2).
  Proof.
    intros A B a b k1 k2 H K. eapply rr_bind; [exact H|]. intros [x s1] [y s2] [E HR]. cbn in E, HR. subst y. apply K, HR.
  Qed.

  Lemma rres_pure : forall {A X} (c1 c2 : res X) (k1 k2 : X -> res (A * mdict)),
    rr eq c1 c2 -> (forall x, rres (k1 x) (k2 x)) -> rres (bind c1 k1) (bind c2 k2).
  Proof. intros A X c1 c2 k1 k2 H K. eapply rr_bind; [exact H|]. intros x y <-. apply K. Qed.

  Lemma rres_fold : forall {A B} (F1 F2 : A * mdict -> B -> res (A * mdict)) l,
    (forall p, In p l -> forall a s1 s2, R s1 s2 -> rres (F1 (a, s1) p) (F2 (a, s2) p)) ->
    forall a s1 s2, R s1 s2 -> rres (fold_res F1 l (a, s1)) (fold_res F2 l (a, s2)).
  Proof.
    intros A B F1 F2 l. induction l as [|p l IH]; intros H a s1 s2 HR; cbn [fold_res].
    - apply rres_ret, HR.
    - apply rres_bind; [apply H; [left; reflexivity | exact HR]|].
      intros x t1 t2 HT. apply IH; [|exact HT]. intros q Hq. apply H. right. exact Hq.
  Qed.

  (* the library calls of the two runs *)
  Record sops_rel (S1 S2 : sops) : Prop := {
    r_mul : forall a b, rr eq (s_mul S1 a b) (s_mul S2 a b);
    r_pow : forall a b, rr eq (s_pow S1 a b) (s_pow S2 a b);
    r_div : forall a b, rr eq (s_div S1 a b) (s_div S2 a b);
    r_add : forall a b, rr eq (s_add S1 a b) (s_add S2 a b);
    r_datn : forall s a b, rr eq (s_datn S1 s a b) (s_datn S2 s a b);
    r_cdat : forall c d v t, rr eq (s_cdat S1 c d v t) (s_cdat S2 c d v t);
    r_nummul : forall x y, rr eq (s_nummul S1 x y) (s_nummul S2 x y);
    r_mfd : forall c d, rr eq (s_mfd S1 c d) (s_mfd S2 c d);
    r_afd : forall c d, rr eq (s_afd S1 c d) (s_afd S2 c d)
  }.
  Lemma sops_rel_refl : forall Sp, sops_rel Sp Sp.
  Proof. intros Sp. split; intros; apply rr_refl. Qed.

  Section Param.
    Variables (S1 S2 : sops) (sp : bool) (sd : mdict).
    Hypothesis OPS : sops_rel S1 S2.

    Lemma mul_factor_rel : forall st f, rr eq (mul_factor S1 st f) (mul_factor S2 st f).
    Proof.
      intros st f. unfold mul_factor.
      destruct f; try (apply (rr_bind eq); [apply rr_refl | intros ? ? <-; apply (r_datn _ _ OPS)]).
      - apply (rr_bind eq); [apply (r_nummul _ _ OPS) | intros ? ? <-; reflexivity].
      - apply (rr_bind eq); [apply (r_nummul _ _ OPS) | intros ? ? <-]. apply rr_fold. intros. apply (r_datn _ _ OPS).
    Qed.

    Lemma pow_result_rel : forall x b e b' e', rr eq (pow_result S1 sp sd x b e b' e') (pow_result S2 sp sd x b e b' e').
    Proof.
      intros. unfold pow_result.
      assert (GEN : rr eq (if expr_eqb b' b && expr_eqb e' e then Ok x else s_pow S1 b' e')
                          (if expr_eqb b' b && expr_eqb e' e then Ok x else s_pow S2 b' e')).
      { destruct (expr_eqb b' b && expr_eqb e' e); [reflexivity | apply (r_pow _ _ OPS)]. }
      (* the single Pow key kb**ke -> kv, once for every form of ke *)
      assert (KEY : forall kb ke kv, rr eq
                (if expr_eqb kb b' then do newexpo <- s_div S1 e' ke;
                   match newexpo with ENum (NInt _) => s_pow S1 kv newexpo
                   | _ => if expr_eqb b' b && expr_eqb e' e then Ok x else s_pow S1 b' e' end
                 else if expr_eqb b' b && expr_eqb e' e then Ok x else s_pow S1 b' e')
                (if expr_eqb kb b' then do newexpo <- s_div S2 e' ke;
                   match newexpo with ENum (NInt _) => s_pow S2 kv newexpo
                   | _ => if expr_eqb b' b && expr_eqb e' e then Ok x else s_pow S2 b' e' end
                 else if expr_eqb b' b && expr_eqb e' e then Ok x else s_pow S2 b' e')).
      { intros kb ke kv. destruct (expr_eqb kb b'); [|exact GEN].
        apply (rr_bind eq); [apply (r_div _ _ OPS) | intros newexpo ? <-].
        destruct newexpo as [[ | | | | | | ]| | | | | | | | | | | | | | | | | ]; first [exact GEN | apply (r_pow _ _ OPS)]. }
      destruct sp; [|exact GEN]. destruct sd as [|[k v] [|p2 sd']]; try exact GEN; [|destruct k; exact GEN].
      destruct k; try exact GEN. destruct k2; first [exact GEN | apply KEY].
    Qed.

    Variables ap1 ap2 : mdict -> expr -> res (expr * mdict).

    Lemma rres_ap_list : forall l,
      (forall y, In y l -> forall s1 s2, R s1 s2 -> rres (ap1 s1 y) (ap2 s2 y)) ->
      forall s1 s2, R s1 s2 -> rres (ap_list ap1 s1 l) (ap_list ap2 s2 l).
    Proof.
      induction l as [|y l IH]; intros H s1 s2 HR; cbn [ap_list].
      - apply rres_ret, HR.
      - apply rres_bind; [apply H; [left; reflexivity | exact HR]|].
        intros x t1 t2 HT. cbn beta iota.
        apply rres_bind; [apply IH; [intros z Hz; apply H; right; exact Hz | exact HT]|].
        intros r u1 u2 HU. cbn beta iota. apply rres_ret, HU.
    Qed.

    Lemma rres_opaque : forall x l,
      (forall y, In y l -> forall s1 s2, R s1 s2 -> rres (ap1 s1 y) (ap2 s2 y)) ->
      forall s1 s2, R s1 s2 -> rres (opaque_node ap1 s1 x l) (opaque_node ap2 s2 x l).
    Proof.
      intros x l H s1 s2 HR. unfold opaque_node.
      apply rres_bind; [apply rres_ap_list; assumption|].
      intros cs t1 t2 HT. cbn beta iota. destruct (all_same cs l); [apply rres_ret, HT | right; reflexivity].
    Qed.

    Variable x : expr.
    Hypothesis Hap : forall y, In y (vchildren x) -> forall s1 s2, R s1 s2 -> rres (ap1 s1 y) (ap2 s2 y).

    Lemma bvisit_param : forall s1 s2, R s1 s2 -> rres (bvisit S1 sp sd ap1 s1 x) (bvisit S2 sp sd ap2 s2 x).
    Proof.
      intros s1 s2 HR.
      destruct x as [n|nm|nm i|nm|c d|c d|b e|c a|c a b|c l|nm l|c a b|a l|a d|l|bb|is ie lo ro|tc];
        cbn [bvisit vchildren] in *; try (apply rres_ret, HR); try (right; reflexivity).
      - (* ENum *)
        destruct (complex_parts n) as [[re im]|]; [|apply rres_ret, HR].
        destruct (find_key I_expr sd) as [v|]; [|apply rres_ret, HR].
        apply rres_bind; [apply Hap; [left; reflexivity | exact HR]|].
        intros re' t1 t2 HT. cbn beta iota.
        apply rres_bind; [apply Hap; [right; left; reflexivity | exact HT]|].
        intros im' u1 u2 HU. cbn beta iota.
        apply rres_pure; [apply (r_mul _ _ OPS)|]. intros m. apply rres_pure; [apply (r_add _ _ OPS)|]. intros r. apply rres_ret, HU.
      - (* EAdd *)
        apply rres_pure; [destruct (find_key (ENum c) sd); [apply (r_cdat _ _ OPS) | apply rr_refl]|]. intros st0.
        apply rres_bind.
        + apply rres_fold; [|exact HR]. intros p Hp st t1 t2 HT. cbn beta iota.
          destruct (find_key (add_from_dict (NInt 0) [(fst p, snd p)]) sd) as [v|].
          * apply rres_pure; [apply (r_cdat _ _ OPS)|]. intros s'. apply rres_ret, HT.
          * assert (Hin : In (fst p) (map fst d)) by (apply in_map; exact Hp).
            destruct (find_key (ENum (snd p)) sd) as [v|].
            -- apply rres_bind; [apply Hap; [exact Hin | exact HT]|].
               intros t u1 u2 HU. cbn beta iota. apply rres_pure; [apply (r_mul _ _ OPS)|]. intros m.
               apply rres_pure; [apply (r_cdat _ _ OPS)|]. intros s'. apply rres_ret, HU.
            -- apply rres_bind; [apply Hap; [exact Hin | exact HT]|].
               intros t u1 u2 HU. cbn beta iota. apply rres_pure; [apply (r_cdat _ _ OPS)|]. intros s'. apply rres_ret, HU.
        + intros st t1 t2 HT. cbn beta iota. apply rres_pure; [apply (r_afd _ _ OPS)|]. intros r. apply rres_ret, HT.
      - (* EMul *)
        apply rres_bind.
        + apply rres_fold; [|exact HR]. intros p Hp st t1 t2 HT. cbn beta iota zeta.
          apply rres_bind.
          * apply Hap; [|exact HT]. apply in_or_app. left. apply in_map. exact Hp.
          * intros f u1 u2 HU. cbn beta iota. apply rres_pure; [|intros s'; apply rres_ret, HU].
            destruct (expr_eqb f (mul_factor_old p)); [apply (r_datn _ _ OPS) | apply mul_factor_rel].
        + intros st t1 t2 HT. cbn beta iota.
          apply rres_bind; [apply Hap; [apply in_or_app; right; left; reflexivity | exact HT]|].
          intros f u1 u2 HU. cbn beta iota. apply rres_pure; [apply mul_factor_rel|]. intros st'.
          apply rres_pure; [apply (r_mfd _ _ OPS)|]. intros r. apply rres_ret, HU.
      - (* EPow *)
        apply rres_bind; [apply Hap; [left; reflexivity | exact HR]|].
        intros b' t1 t2 HT. cbn beta iota.
        apply rres_bind; [apply Hap; [right; left; reflexivity | exact HT]|].
        intros e' u1 u2 HU. cbn beta iota. apply rres_pure; [apply pow_result_rel|]. intros r. apply rres_ret, HU.
      - (* EF1 *) apply rres_opaque; assumption.
      - (* EF2 *) apply rres_opaque; assumption.
      - (* EFN *)
        destruct (c =? TC_Intersection)%N; [apply rres_ret, HR | apply rres_opaque; assumption].
      - (* EFunSym *)
        apply rres_bind; [apply rres_ap_list; assumption|].
        intros args' t1 t2 HT. cbn beta iota. apply rres_ret, HT.
      - (* ELex *)
        destruct (c =? TC_Contains)%N; [|apply rres_ret, HR].
        apply rres_bind; [apply Hap; [left; reflexivity | exact HR]|].
        intros a' t1 t2 HT. cbn beta iota.
        apply rres_bind; [apply Hap; [right; left; reflexivity | exact HT]|].
        intros b' u1 u2 HU. cbn beta iota.
        destruct (negb (is_set_node b')); [right; reflexivity|].
        destruct (expr_eqb a' a && expr_eqb b' b); [apply rres_ret, HU | right; reflexivity].
      - (* EPw *) apply rres_opaque; assumption.
    Qed.
  End Param.
End Rel.

(* strictly related results continue alike *)
Lemma rr_strict_bind : forall A B (RA : A -> A -> Prop) (k : A -> res B) a b,
  (forall x y, RA x y -> k x = k y) -> rr false RA a b -> bind a k = bind b k.
Proof.
  intros A B RA k a b K H. destruct a, b; cbn in H; try contradiction; try (destruct H as [H|H]; [discriminate H|]);
    try contradiction; cbn.
  - apply K, H.
  - destruct H as [-> ->]. reflexivity.
  - reflexivity.
  - subst. reflexivity.
Qed.

Lemma wsize_pos : forall e, (1 <= wsize e)%nat.
Proof. destruct e; cbn [wsize]; try lia. destruct (complex_parts n); lia. Qed.

Lemma wsize_num_parts : forall n re im, complex_parts n = Some (re, im) ->
  wsize (ENum re) = 1%nat /\ wsize (ENum im) = 1%nat.
Proof.
  intros n re im H. destruct n; cbn [complex_parts] in H; try discriminate H; injection H as <- <-.
  - split; cbn [wsize]; unfold from_mpq; cbn [QArith_base.Qden QArith_base.Qnum];
      match goal with |- context [(?d =? 1)%positive] => destruct (d =? 1)%positive end; reflexivity.
  - split; reflexivity.
Qed.

Lemma fold_wsize_in_fst : forall (d : list (expr * number)) p, In p d ->
  (wsize (fst p) <= fold_right (fun p acc => wsize (fst p) + acc) 0 d)%nat.
Proof. induction d as [|q d IH]; intros p H; [destruct H|]. destruct H as [->|H]; cbn [fold_right]; [lia | specialize (IH p H); lia]. Qed.
Lemma fold_wsize_in_pair : forall (d : list (expr * expr)) p, In p d ->
  (wsize (fst p) + wsize (snd p) <= fold_right (fun p acc => wsize (fst p) + wsize (snd p) + acc) 0 d)%nat.
Proof. induction d as [|q d IH]; intros p H; [destruct H|]. destruct H as [->|H]; cbn [fold_right]; [lia | specialize (IH p H); lia]. Qed.
Lemma fold_wsize_in : forall (l : list expr) y, In y l ->
  (wsize y <= fold_right (fun x acc => wsize x + acc) 0 l)%nat.
Proof. induction l as [|q l IH]; intros y H; [destruct H|]. destruct H as [->|H]; cbn [fold_right]; [lia | specialize (IH y H); lia]. Qed.

Lemma vchildren_wsize : forall x y, In y (vchildren x) -> (wsize y < wsize x)%nat.
Proof.
  intros x y H.
  destruct x as [n|nm|nm i|nm|c d|c d|b e|c a|c a b|c l|nm l|c a b|a l|a d|l|bb|is ie lo ro|tc];
    cbn [vchildren] in H; try contradiction.
  - destruct (complex_parts n) as [[re im]|] eqn:E; [|contradiction].
    destruct (wsize_num_parts n re im E) as [A B]. cbn [wsize]. rewrite E.
    destruct H as [<-|[<-|[]]]; lia.
  - apply in_map_iff in H. destruct H as (p & <- & Hp). pose proof (fold_wsize_in_fst d p Hp). cbn [wsize]. lia.
  - apply in_app_or in H. destruct H as [H|[<-|[]]].
    + apply in_map_iff in H. destruct H as (p & <- & Hp). pose proof (fold_wsize_in_pair d p Hp) as L.
      unfold mul_factor_old. cbn [wsize]. pose proof (wsize_pos (snd p)).
      destruct (expr_eqb (snd p) e_one); cbn [wsize]; lia.
    + cbn [wsize]. destruct (complex_parts c); lia.
  - cbn [wsize]. destruct H as [<-|[<-|[]]]; lia.
  - cbn [wsize]. destruct H as [<-|[]]; lia.
  - cbn [wsize]. destruct H as [<-|[<-|[]]]; lia.
  - destruct (c =? TC_Intersection)%N; [contradiction|]. pose proof (fold_wsize_in l y H). cbn [wsize]. lia.
  - pose proof (fold_wsize_in l y H). cbn [wsize]. lia.
  - destruct (c =? TC_Contains)%N; [|contradiction]. cbn [wsize]. destruct H as [<-|[<-|[]]]; lia.
  - apply in_flat_map in H. destruct H as (p & Hp & Hy). pose proof (fold_wsize_in_pair l p Hp). cbn [wsize].
    destruct Hy as [<-|[<-|[]]]; lia.
Qed.

Lemma vnodes_closed : forall f x x' y, (wsize x <= f)%nat -> In x' (vnodes f x) -> In y (vchildren x') -> In y (vnodes f x).
Proof.
  induction f as [|f IH]; intros x x' y L H Hy.
  - pose proof (wsize_pos x). lia.
  - cbn [vnodes] in *. destruct H as [<-|H].
    + right. apply in_flat_map. exists y. split; [exact Hy|]. destruct f; cbn [vnodes]; left; reflexivity.
    + right. apply in_flat_map in H. destruct H as (c & Hc & H). apply in_flat_map. exists c. split; [exact Hc|].
      pose proof (vchildren_wsize x c Hc). eapply IH; [lia | exact H | exact Hy].
Qed.

(* a look-up returns a stored key that is equivalent to the query ([key_equiv], as std::map does), not
   necessarily equal to it *)
Lemma mlookup_equiv : forall t d k v, mlookup t d = Some (k, v) -> In (k, v) d /\ key_equiv k t = true.
Proof.
  intros t d. induction d as [|[k0 v0] d IH]; intros k v H; cbn [mlookup] in H; [discriminate|].
  destruct (expr_keyless k0 t) eqn:A.
  - destruct (IH k v H) as [I1 I2]. split; [right; exact I1 | exact I2].
  - destruct (expr_keyless t k0) eqn:B; [discriminate|]. injection H as <- <-.
    split; [left; reflexivity|]. unfold key_equiv. rewrite A, B. reflexivity.
Qed.

Lemma minsert_in : forall t v d p, In p (minsert t v d) -> p = (t, v) \/ In p d.
Proof.
  intros t v d. induction d as [|[k0 v0] d IH]; intros p H; cbn [minsert] in H.
  - destruct H as [<-|[]]. left. reflexivity.
  - destruct (expr_keyless k0 t).
    + destruct H as [<-|H]; [right; left; reflexivity|]. destruct (IH p H) as [->|I1]; [left; reflexivity | right; right; exact I1].
    + destruct (expr_keyless t k0); [|right; exact H]. destruct H as [<-|H]; [left; reflexivity | right; exact H].
Qed.

Lemma mlookup_sorted_in : forall d k v, ssorted d -> (forall p, In p d -> wf (fst p) = true) ->
  In (k, v) d -> mlookup k d = Some (k, v).
Proof.
  induction d as [|[k0 v0] d IH]; intros k v S W H; [destruct H|].
  cbn [ssorted] in S. destruct S as [L S]. cbn [mlookup]. destruct H as [E|H].
  - injection E as -> ->. rewrite (kl_irrefl k (W (k, v) (or_introl eq_refl))). reflexivity.
  - pose proof (L (k, v) H) as Lk. cbn [fst] in Lk. rewrite Lk. apply IH; [exact S | intros p Hp; apply W; right; exact Hp | exact H].
Qed.

Definition good (d : mdict) : Prop := ssorted d /\ (forall p, In p d -> wf (fst p) = true).

Lemma minsert_good : forall t v d, good d -> wf t = true -> good (minsert t v d).
Proof.
  intros t v d. induction d as [|[k0 v0] d IH]; intros [S W] Wt; cbn [minsert].
  - split; [cbn; split; [intros q []|exact I] | intros p [<-|[]]; exact Wt].
  - cbn [ssorted] in S. destruct S as [L S].
    assert (W0 : wf k0 = true) by (apply (W (k0, v0)); left; reflexivity).
    assert (Wd : forall p, In p d -> wf (fst p) = true) by (intros p Hp; apply W; right; exact Hp).
    destruct (expr_keyless k0 t) eqn:A.
    + destruct (IH (conj S Wd) Wt) as [S' W']. split.
      * cbn [ssorted]. split; [|exact S']. intros q Hq. destruct (minsert_in t v d q Hq) as [->|Hq']; [exact A | apply L; exact Hq'].
      * intros p [<-|Hp]; [exact W0 | apply W'; exact Hp].
    + destruct (expr_keyless t k0) eqn:B; [|split; [cbn [ssorted]; split; assumption | exact W]].
      split.
      * cbn [ssorted]. split; [|split; assumption].
        intros q [<-|Hq]; [exact B|]. exact (kl_trans t k0 (fst q) Wt W0 (Wd q Hq) B (L q Hq)).
      * intros p [<-|Hp]; [exact Wt | apply W; exact Hp].
Qed.

Lemma mlookup_minsert_keeps : forall t v q d, good d -> wf t = true -> wf q = true ->
  mlookup q d <> None -> mlookup q (minsert t v d) <> None.
Proof.
  intros t v q d. induction d as [|[k0 v0] d IH]; intros [S W] Wt Wq H; [cbn in H; congruence|].
  cbn [ssorted] in S. destruct S as [L S].
  assert (W0 : wf k0 = true) by (apply (W (k0, v0)); left; reflexivity).
  assert (Wd : forall p, In p d -> wf (fst p) = true) by (intros p Hp; apply W; right; exact Hp).
  cbn [mlookup] in H. cbn [minsert].
  destruct (expr_keyless k0 q) eqn:A.
  - destruct (expr_keyless k0 t) eqn:C.
    + cbn [mlookup]. rewrite A. apply IH; auto. split; assumption.
    + destruct (expr_keyless t k0) eqn:D; [|cbn [mlookup]; rewrite A; exact H].
      cbn [mlookup]. rewrite (kl_trans t k0 q Wt W0 Wq D A). rewrite A. exact H.
  - destruct (expr_keyless q k0) eqn:B; [congruence|].
    destruct (expr_keyless k0 t) eqn:C.
    + cbn [mlookup]. rewrite A, B. discriminate.
    + destruct (expr_keyless t k0) eqn:D; [|cbn [mlookup]; rewrite A, B; discriminate].
      assert (E : expr_eqb k0 q = true) by (apply (kl_eq_iff k0 q W0 Wq); split; assumption).
      cbn [mlookup]. rewrite (kl_lt_eq t k0 q Wt W0 Wq D E). rewrite A, B. discriminate.
Qed.

Section Cache.
  Variables (Sp : sops) (sp : bool) (sd : mdict).
  Notation TT := (fun _ _ : mdict => True).

  Lemma apply_S : forall f cache vis x,
    apply Sp (S f) sp cache sd vis x =
    if cache then
      match mlookup x vis with
      | Some (_, v) => Ok (v, vis)
      | None => do '(r, vis') <- bvisit Sp sp sd (apply Sp f sp cache sd) vis x; Ok (r, minsert x r vis')
      end
    else match mlookup x sd with
         | Some (_, v) => Ok (v, vis)
         | None => bvisit Sp sp sd (apply Sp f sp cache sd) vis x
         end.
  Proof. reflexivity. Qed.

  (* (a) + (b): state and fuel do not matter above the measure *)
  Lemma uncached_stable : forall f1 f2 x v1 v2, (wsize x < f1)%nat -> (wsize x < f2)%nat ->
    rres false TT (apply Sp f1 sp false sd v1 x) (apply Sp f2 sp false sd v2 x).
  Proof.
    induction f1 as [|f1 IH]; intros f2 x v1 v2 L1 L2; [lia|]. destruct f2 as [|f2]; [lia|].
    rewrite !apply_S. cbn beta iota.
    destruct (mlookup x sd) as [[k v]|]; [apply rres_ret; exact I|].
    apply bvisit_param; [apply sops_rel_refl | | exact I].
    intros y Hy s1 s2 _. pose proof (vchildren_wsize x y Hy). apply IH; lia.
  Qed.

  (* the uncached result of a node *)
  Definition uresult (x r : expr) : Prop :=
    forall f v, (wsize x < f)%nat -> exists s, apply Sp f sp false sd v x = Ok (r, s).

  Lemma uresult_of_run : forall f v x r s, (wsize x < f)%nat -> apply Sp f sp false sd v x = Ok (r, s) -> uresult x r.
  Proof.
    intros f v x r s L E f' v' L'. pose proof (uncached_stable f f' x v v' L L') as H. rewrite E in H.
    destruct (apply Sp f' sp false sd v' x) as [[r' s']| | |]; cbn in H; try contradiction.
    destruct H as [<- _]. exists s'. reflexivity.
  Qed.

  Variable x0 : expr.
  Definition node (y : expr) : Prop := In y (visited_nodes x0).
  Lemma node_root : node x0.
  Proof. unfold node, visited_nodes. destruct (wsize x0); cbn [vnodes]; left; reflexivity. Qed.
  Lemma node_child : forall x y, node x -> In y (vchildren x) -> node y.
  Proof. unfold node, visited_nodes. intros x y H Hy. eapply vnodes_closed; [apply le_n | exact H | exact Hy]. Qed.

  Hypothesis Hsyn : forall a b, (node a \/ In a (map fst sd)) -> (node b \/ In b (map fst sd)) ->
                                key_equiv a b = true -> a = b.
  Hypothesis Hsorted : ssorted sd.
  Hypothesis Hwf : forall p, In p sd -> wf (fst p) = true.
  Hypothesis Hnwf : forall y, node y -> wf y = true.

  (* every entry stores the uncached result of every node equivalent to its key; the cache is a sorted
     map with well-formed keys that still finds every key of subs_dict_ *)
  Definition inv (vis : mdict) : Prop :=
    good vis /\
    (forall k v q, In (k, v) vis -> node q -> key_equiv k q = true -> uresult q v) /\
    (forall k v, In (k, v) sd -> mlookup k vis <> None).

  Lemma inv_init : inv sd.
  Proof using Hsyn Hsorted Hwf.
    split; [split; assumption|]. split.
    - intros k v q Hin Hq Heq. assert (k = q).
      { apply Hsyn; [right; apply (in_map fst _ _ Hin) | left; exact Hq | exact Heq]. }
      subst k. intros f s L. destruct f as [|f]; [destruct (Nat.nlt_0_r _ L)|]. rewrite apply_S. cbn beta iota.
      rewrite (mlookup_sorted_in sd q v Hsorted Hwf Hin). exists s. reflexivity.
    - intros k v Hin. rewrite (mlookup_sorted_in sd k v Hsorted Hwf Hin). discriminate.
  Qed.

  Lemma cached_simulates : forall f x v1 v2, (wsize x < f)%nat -> node x -> inv v1 ->
    rres false (fun s1 _ => inv s1) (apply Sp f sp true sd v1 x) (apply Sp f sp false sd v2 x).
  Proof using Hsyn Hwf Hnwf.
    induction f as [|f IH]; intros x v1 v2 L N I1; [lia|].
    destruct (mlookup x v1) as [[k v]|] eqn:LK.
    - (* hit *)
      rewrite (apply_S f true). cbn beta iota. rewrite LK.
      destruct (mlookup_equiv x v1 k v LK) as [Hin Heq]. destruct I1 as (G1 & U1 & K1).
      destruct (U1 k v x Hin N Heq (S f) v2 L) as [s E]. rewrite E. cbn. split; [reflexivity | exact (conj G1 (conj U1 K1))].
    - (* miss *)
      assert (SIM : rres false (fun s1 _ => inv s1) (bvisit Sp sp sd (apply Sp f sp true sd) v1 x) (bvisit Sp sp sd (apply Sp f sp false sd) v2 x)).
      { apply bvisit_param; [apply sops_rel_refl | | exact I1]. intros y Hy s1 s2 Hs. pose proof (vchildren_wsize x y Hy).
        apply IH; [lia | eapply node_child; eassumption | exact Hs]. }
      rewrite (apply_S f true). cbn beta iota. rewrite LK.
      assert (LS : mlookup x sd = None).
      { destruct (mlookup x sd) as [[k v]|] eqn:LS; [|reflexivity]. exfalso.
        destruct (mlookup_equiv x sd k v LS) as [Hin Heq].
        assert (k = x) by (apply Hsyn; [right; apply (in_map fst _ _ Hin) | left; exact N | exact Heq]). subst k.
        destruct I1 as (_ & _ & K1). apply (K1 x v Hin). exact LK. }
      rewrite (apply_S f false). cbn beta iota. rewrite LS.
      destruct (bvisit Sp sp sd (apply Sp f sp true sd) v1 x) as [[r s1]| | |] eqn:B1;
        destruct (bvisit Sp sp sd (apply Sp f sp false sd) v2 x) as [[r2 s2]| | |] eqn:B2; cbn in SIM |- *; try contradiction; try exact SIM.
      destruct SIM as [<- (G2 & U2 & K2)]. split; [reflexivity|].
      assert (U : uresult x r).
      { apply (uresult_of_run (S f) v2 x r s2 L). rewrite apply_S. cbn beta iota. rewrite LS. exact B2. }
      pose proof (Hnwf x N) as Wx.
      split; [apply minsert_good; assumption|]. split.
      + intros k v q Hin Hq Heq. destruct (minsert_in x r s1 (k, v) Hin) as [E|Hin'].
        * injection E as -> ->. assert (x = q) by (apply Hsyn; [left; exact N | left; exact Hq | exact Heq]).
          subst q. exact U.
        * eapply U2; eassumption.
      + intros k v Hin. exact (mlookup_minsert_keeps x r k s1 G2 Wx (Hwf (k, v) Hin) (K2 k v Hin)).
  Qed.
End Cache.
