(* C11 -- value preservation of substitution, continued: the nodes, apply, the theorems. *)
From SE Require Import C11.SubsGuardedOps C11.SubsMono C11.SubsCache C11.SubsProofs C11.SubsSound C09.ExpandSound
  ExpSubs.QiRing Expr.DenotePow Expr.Unfold.
From Coq Require Import QArith Lia Setoid Morphisms.
Local Open Scope Z_scope.
Local Open Scope res_scope.

Section Sound2.
  Variables rho rhoc : list N -> qi.
  Variable sd : mdict.
  Variable sp : bool.
  Notation den := (denote rho rhoc).
  Notation wp := (wprod rho rhoc).
  Notation den' := (denote (subst_val rho rhoc sd) rhoc).
  Notation G := guarded_sops.
  Hypothesis Hvals : forall p, In p sd -> wf (snd p) = true.
  Hypothesis Hspk : single_pow_key sd = false.

  (* what the visitor guarantees of the result r for the node y: integer literals (the exponents the guard admits)
     come back unchanged *)
  Definition node_res (y r : expr) : Prop :=
    wf r = true /\ qi_eq (den r) (den' y) /\ (is_int_lit y = true -> r = y).
  Definition ap_ok (ap : mdict -> expr -> res (expr * mdict)) (y : expr) : Prop :=
    forall vis r vis', ap vis y = Ok (r, vis') -> node_res y r.

  Lemma node_res_same : forall y, wf y = true -> qi_eq (den y) (den' y) -> node_res y y.
  Proof. intros y W V. split; [exact W|]. split; [exact V | reflexivity]. Qed.

  Lemma node_ok_wf : forall y, snode_ok sd y = true -> wf y = true.
  Proof. intros y H. unfold snode_ok in H. apply andb_prop in H. destruct H as [H _]. apply andb_prop in H. tauto. Qed.

  Lemma nohit : forall y k, snode_ok sd y = true -> In k (y :: extra_lookups y) -> is_sym k = false -> mlookup k sd = None.
  Proof.
    intros y k H Hk S. unfold snode_ok in H. apply andb_prop in H. destruct H as [H _]. apply andb_prop in H. destruct H as [_ H].
    rewrite forallb_forall in H. specialize (H k Hk). rewrite S in H. cbn [orb] in H.
    destruct (mlookup k sd); [discriminate H | reflexivity].
  Qed.
  Lemma nofind : forall y k, snode_ok sd y = true -> In k (y :: extra_lookups y) -> is_sym k = false -> find_key k sd = None.
  Proof. intros y k H Hk S. unfold find_key. rewrite (nohit y k H Hk S). reflexivity. Qed.

  Lemma s_ap_list_same : forall ap l vis cs vis', ap_list ap vis l = Ok (cs, vis') -> True.
  Proof. trivial. Qed.

  Lemma mul_factor_old_wf : forall c d p, wf (EMul c d) = true -> In p d -> wf (mul_factor_old p) = true.
  Proof.
    intros c d p W Hp.
    assert (Wk : wf (fst p) = true).
    { apply (children_wf (EMul c d)); [exact W|]. cbn [children]. unfold flat. apply in_flat_map. exists p. split; [exact Hp | left; reflexivity]. }
    assert (Wv : wf (snd p) = true).
    { apply (children_wf (EMul c d)); [exact W|]. cbn [children]. unfold flat. apply in_flat_map. exists p. split; [exact Hp | right; left; reflexivity]. }
    unfold mul_factor_old. destruct (expr_eqb (snd p) e_one); [exact Wk | apply wf_EPow_intro; assumption].
  Qed.

  Lemma s_node_add : forall ap c d vis r vis',
    snode_ok sd (EAdd c d) = true -> (forall y, In y (vchildren (EAdd c d)) -> ap_ok ap y) ->
    bvisit G sp sd ap vis (EAdd c d) = Ok (r, vis') -> node_res (EAdd c d) r.
  Proof.
    intros ap c d vis r vis' NO Hap H. cbn [bvisit] in H.
    rewrite (nofind (EAdd c d) (ENum c) NO) in H; [| right; left; reflexivity | reflexivity]. cbn [bind] in H.
    apply bind_ok in H. destruct H as ([st v1] & EF & H).
    apply bind_ok in H. destruct H as (r0 & Er & H). injection H as <- <-.
    cbn [s_afd guarded_sops fst snd] in Er. destruct (c_afd rho rhoc _ _ _ Er) as [Wr Vr].
    split; [exact Wr|]. split; [|intros L; discriminate L].
    assert (SHAPE : forall p, In p d -> match snd p with NInt 1 => True | _ => is_sym (add_from_dict (NInt 0) [(fst p, snd p)]) = false end).
    { intros p Hp. unfold snode_ok in NO. apply andb_prop in NO. destruct NO as [_ NO]. rewrite forallb_forall in NO.
      specialize (NO p Hp). destruct (snd p) as [[|[| |]|]| | | | | | ]; try exact I;
        (destruct (is_sym _); [discriminate NO | reflexivity]). }
    set (V := fun acc : (number * adict) * mdict => qi_add (qval (fst (fst acc))) (wsum den (snd (fst acc)))).
    eapply (fold_val _ _ V _ (fun p => qi_mul (qval (snd p)) (den' (fst p)))) in EF.
    + rewrite Vr. change (qi_add (qval (fst st)) (wsum den (snd st))) with (V (st, v1)). rewrite EF.
      unfold V. cbn [fst snd wsum]. rewrite (denote_EAdd (subst_val rho rhoc sd) rhoc), <- (qsum_wsum (subst_val rho rhoc sd) rhoc d). ring.
    + intros [s vs] p [s' vs'] Hp E. cbn beta iota in E. unfold V. cbn [fst snd].
      assert (Hk : In (fst p) (vchildren (EAdd c d))) by (cbn [vchildren]; apply in_map; exact Hp).
      destruct (find_key (add_from_dict (NInt 0) [(fst p, snd p)]) sd) as [val|] eqn:FK.
      * (* the whole term is a key: a symbol with coefficient 1 *)
        apply bind_ok in E. destruct E as ([c1 d1] & Ec & E). injection E as <- <-.
        cbn [s_cdat guarded_sops] in Ec. rewrite (c_cdat rho rhoc _ _ _ _ _ _ Ec). cbn [fst snd].
        unfold find_key in FK. destruct (mlookup (add_from_dict (NInt 0) [(fst p, snd p)]) sd) as [[k0 v0]|] eqn:ML; [|discriminate FK].
        injection FK as ->.
        assert (SY : is_sym (add_from_dict (NInt 0) [(fst p, snd p)]) = true).
        { destruct (is_sym (add_from_dict (NInt 0) [(fst p, snd p)])) eqn:SY; [reflexivity|].
          rewrite (nohit (EAdd c d) _ NO) in ML; [discriminate ML | | exact SY].
          right. cbn [extra_lookups]. right. apply in_flat_map. exists p. split; [exact Hp | left; reflexivity]. }
        pose proof (SHAPE p Hp) as SH. destruct (snd p) as [[|[| |]|]| | | | | | ] eqn:SP; try (rewrite SH in SY; discriminate SY).
        (* snd p = NInt 1: the looked-up term is the key itself *)
        assert (AK : add_from_dict (NInt 0) [(fst p, NInt 1)] = fst p) by reflexivity.
        rewrite AK in ML, SY. destruct (fst p) as [| nm | | | | | | | | | | | | | | | | ] eqn:FP; try discriminate SY.
        cbn [denote]. unfold subst_val. rewrite ML. rewrite qval_one. ring.
      * rewrite (nofind (EAdd c d) (ENum (snd p)) NO) in E; [| | reflexivity].
        2:{ right. cbn [extra_lookups]. right. apply in_flat_map. exists p. split; [exact Hp | right; left; reflexivity]. }
        apply bind_ok in E. destruct E as ([t vs2] & Et & E). apply bind_ok in E. destruct E as ([c1 d1] & Ec & E).
        injection E as <- <-. destruct (Hap _ Hk _ _ _ Et) as (_ & Vt & _).
        cbn [s_cdat guarded_sops] in Ec. rewrite (c_cdat rho rhoc _ _ _ _ _ _ Ec). cbn [fst snd]. rewrite Vt. ring.
  Qed.

  Lemma s_node_mul : forall ap c d vis r vis',
    snode_ok sd (EMul c d) = true -> (forall y, In y (vchildren (EMul c d)) -> ap_ok ap y) ->
    bvisit G sp sd ap vis (EMul c d) = Ok (r, vis') -> node_res (EMul c d) r.
  Proof.
    intros ap c d vis r vis' NO Hap H. cbn [bvisit] in H. pose proof (node_ok_wf _ NO) as Wx.
    apply bind_ok in H. destruct H as ([st v1] & EF & H).
    apply bind_ok in H. destruct H as ([fcoef v2] & Efc & H).
    apply bind_ok in H. destruct H as (st' & Em & H). apply bind_ok in H. destruct H as (r0 & Er & H). injection H as <- <-.
    cbn [s_mfd guarded_sops] in Er. destruct (c_mfd rho rhoc _ _ _ Er) as (_ & _ & Wr & Vr).
    split; [exact Wr|]. split; [|intros L; discriminate L].
    set (V := fun acc : (number * mdict) * mdict => pv rho rhoc (fst acc)).
    eapply (fold_prod _ _ V _ (fun p => den' (mul_factor_old p))) in EF.
    + assert (Hc : In (ENum c) (vchildren (EMul c d))) by (cbn [vchildren]; apply in_or_app; right; left; reflexivity).
      destruct (Hap _ Hc _ _ _ Efc) as (_ & Vc & _).
      pose proof (s_mul_factor rho rhoc _ _ _ Em) as Vm.
      rewrite Vr. change (qi_mul (wp (snd st')) (qval (fst st'))) with (pv rho rhoc st'). rewrite Vm, Vc.
      change (pv rho rhoc st) with (V (st, v1)). rewrite EF. unfold V, pv. cbn [fst snd].
      rewrite (denote_EMul' (subst_val rho rhoc sd) rhoc).
      rewrite (qprod_factors rhoc (subst_val rho rhoc sd)), qval_one. change (wp []) with qi_one. cbn [denote]. ring.
    + intros [s vs] p [s' vs'] Hp E. cbv zeta in E. unfold V. cbn [fst snd].
      assert (Hk : In (mul_factor_old p) (vchildren (EMul c d))) by (cbn [vchildren]; apply in_or_app; left; apply in_map; exact Hp).
      apply bind_ok in E. destruct E as ([factor vs2] & Ef & E). apply bind_ok in E. destruct E as (s2 & Es & E).
      injection E as <- <-. destruct (Hap _ Hk _ _ _ Ef) as (Wf & Vf & _).
      destruct (expr_eqb factor (mul_factor_old p)) eqn:EQ.
      * cbn [s_datn guarded_sops] in Es. destruct (c_datn rho rhoc _ _ _ _ Es) as (z & Ev & _ & Vd).
        unfold pv. rewrite Vd.
        pose proof (mul_factor_old_wf c d p Wx Hp) as Wo.
        pose proof (denote_respects rho rhoc _ _ Wf Wo EQ) as RS.
        rewrite <- Vf, RS, (den_mul_factor_old rhoc rho p), Ev. cbn [qpow]. reflexivity.
      * rewrite (s_mul_factor rho rhoc _ _ _ Es), Vf. reflexivity.
  Qed.

  Lemma s_node_pow : forall ap b e vis r vis',
    snode_ok sd (EPow b e) = true -> (forall y, In y (vchildren (EPow b e)) -> ap_ok ap y) ->
    bvisit G sp sd ap vis (EPow b e) = Ok (r, vis') -> node_res (EPow b e) r.
  Proof.
    intros ap b e vis r vis' NO Hap H. cbn [bvisit] in H. pose proof (node_ok_wf _ NO) as Wx.
    apply bind_ok in H. destruct H as ([b' v1] & Eb & H). apply bind_ok in H. destruct H as ([e' v2] & Ee & H).
    apply bind_ok in H. destruct H as (r0 & Er & H). injection H as <- <-.
    assert (IL : is_int_lit e = true).
    { unfold snode_ok in NO. apply andb_prop in NO. destruct NO as [_ NO]. exact NO. }
    destruct (Hap b (or_introl eq_refl) _ _ _ Eb) as (Wb' & Vb & _).
    destruct (Hap e (or_intror (or_introl eq_refl)) _ _ _ Ee) as (_ & _ & Ie). specialize (Ie IL). subst e'.
    assert (PR : pow_result G false sd (EPow b e) b e b' e = Ok r0).
    { destruct sp; [rewrite <- (pow_result_switch G sd _ _ _ _ _ Hspk) | ]; exact Er. }
    unfold pow_result in PR.
    assert (Wb : wf b = true) by (apply (children_wf (EPow b e)); [exact Wx | left; reflexivity]).
    destruct e as [[z| | | | | | ]| | | | | | | | | | | | | | | | | ]; try discriminate IL.
    destruct (expr_eqb b' b && expr_eqb (ENum (NInt z)) (ENum (NInt z))) eqn:EQ.
    + injection PR as <-. split; [exact Wx|]. split; [|intros L; discriminate L].
      apply andb_prop in EQ. destruct EQ as [EQb _].
      assert (DB : qi_eq (den b) (den' b)) by (rewrite <- Vb; symmetry; apply denote_respects; assumption).
      cbn [denote qpow]. rewrite DB. reflexivity.
    + cbn [s_pow guarded_sops] in PR. destruct (c_pow rho rhoc _ _ _ PR) as (n & En & _ & Vr & Wr).
      injection En as <-. split; [exact Wr|]. split; [|intros L; discriminate L].
      rewrite Vr, Vb. cbn [denote qpow]. reflexivity.
  Qed.

  Lemma s_bvisit : forall ap x vis r vis',
    snode_ok sd x = true -> mlookup x sd = None ->
    (forall y, In y (vchildren x) -> ap_ok ap y) ->
    bvisit G sp sd ap vis x = Ok (r, vis') ->
    node_res x r.
  Proof.
    intros ap x vis r vis' NO NH Hap H. pose proof (node_ok_wf x NO) as Wx.
    assert (UNCH : qi_eq (den x) (den' x) -> r = x -> node_res x r).
    { intros V ->. apply node_res_same; assumption. }
    assert (OPQ : forall l, qi_eq (den x) (den' x) -> opaque_node ap vis x l = Ok (r, vis') -> node_res x r).
    { intros l V E. unfold opaque_node in E. apply bind_ok in E. destruct E as ([cs v1] & _ & E).
      destruct (all_same cs l); [|discriminate E]. injection E as <- <-. apply UNCH; [exact V | reflexivity]. }
    destruct x as [n|nm|nm i|nm|c d|c d|b e|fc fa|fc fa fb|fc fl|nm fl|fc fa fb|fa fl|fa fd|fl|bb|is ie lo ro|tc];
      cbn [bvisit] in H;
      try (injection H as <- <-; apply UNCH; [reflexivity | reflexivity]);
      try (apply (OPQ _ ltac:(reflexivity) H));
      try discriminate H.
    - (* Number *)
      assert (E : Ok (ENum n, vis) = Ok (r, vis')).
      { destruct (complex_parts n) as [[re im]|] eqn:CP; [|exact H].
        rewrite (nofind (ENum n) I_expr NO) in H; [exact H | | reflexivity].
        right. cbn [extra_lookups]. rewrite CP. left. reflexivity. }
      injection E as <- <-. apply UNCH; reflexivity.
    - (* Symbol *)
      injection H as <- <-. apply UNCH; [|reflexivity]. cbn [denote]. unfold subst_val. rewrite NH. reflexivity.
    - (* Add *) exact (s_node_add ap c d vis r vis' NO Hap H).
    - (* Mul *) exact (s_node_mul ap c d vis r vis' NO Hap H).
    - (* Pow *) exact (s_node_pow ap b e vis r vis' NO Hap H).
    - (* EFN *)
      destruct (fc =? TC_Intersection)%N; [injection H as <- <-; apply UNCH; reflexivity | apply (OPQ _ ltac:(reflexivity) H)].
    - (* FunctionSymbol: outside the guard *)
      exfalso. unfold snode_ok in NO. apply andb_prop in NO. destruct NO as [_ NO]. discriminate NO.
    - (* ELex *)
      destruct (fc =? TC_Contains)%N; [|injection H as <- <-; apply UNCH; reflexivity].
      apply bind_ok in H. destruct H as ([a' v1] & _ & H). apply bind_ok in H. destruct H as ([b' v2] & _ & H).
      destruct (negb (is_set_node b')); [discriminate H|].
      destruct (expr_eqb a' fa && expr_eqb b' fb); [|discriminate H]. injection H as <- <-. apply UNCH; reflexivity.
  Qed.

  Variable x0 : expr.
  Hypothesis Hnodes : forall y, node x0 y -> snode_ok sd y = true.

  Lemma s_apply : forall f x, node x0 x -> ap_ok (fun v y => apply G f sp false sd v y) x.
  Proof using Hvals Hspk Hnodes.
    induction f as [|f IH]; intros x N v r v' H; [discriminate H|].
    pose proof (Hnodes x N) as NO. cbn [apply] in H.
    destruct (mlookup x sd) as [[k val]|] eqn:ML.
    - (* found in the map: a symbol *)
      injection H as <- <-.
      assert (SY : is_sym x = true).
      { destruct (is_sym x) eqn:SY; [reflexivity|]. rewrite (nohit x x NO (or_introl eq_refl) SY) in ML. discriminate ML. }
      destruct x as [| nm | | | | | | | | | | | | | | | | ]; try discriminate SY.
      split; [apply (Hvals (k, val)); apply (mlookup_in _ _ _ _ ML)|].
      split; [|intros L; discriminate L]. cbn [denote]. unfold subst_val. rewrite ML. reflexivity.
    - apply (s_bvisit (SubsModel.apply G f sp false sd) x v r v' NO ML); [|exact H].
      intros y Hy. apply (IH y). exact (node_child x0 x y N Hy).
  Qed.
End Sound2.

(* value preservation: whenever the static conditions hold and the guarded run accepts (x, sd) -- [subs_guard], a
   boolean computed by the model --, the model's uncached subs / xreplace / msubs / ssubs returns a well-formed
   value whose denotation under every valuation equals the denotation of x under the substituted valuation *)
Theorem subs_sound_guarded : forall kind sd x, subs_guard kind sd x = true ->
  exists r, subs_gen kind false sd x = Ok r /\ wf r = true /\ forall rho rhoc : list N -> qi, qi_eq (denote rho rhoc r) (denote (subst_val rho rhoc sd) rhoc x).
Proof.
  intros kind sd x Gd. unfold subs_guard in Gd. apply andb_prop in Gd. destruct Gd as [St Ok_].
  unfold subs_static_ok in St. apply andb_prop in St. destruct St as [St Spk]. apply andb_prop in St. destruct St as [Nd Vl].
  assert (Hvals : forall p, In p sd -> wf (snd p) = true) by (intros p Hp; rewrite forallb_forall in Vl; apply Vl; exact Hp).
  assert (Hspk : single_pow_key sd = false) by (destruct (single_pow_key sd); [discriminate Spk | reflexivity]).
  assert (Hnodes : forall y, node x y -> snode_ok sd y = true) by (intros y Hy; rewrite forallb_forall in Nd; apply Nd; exact Hy).
  destruct (subs_g kind false sd x) as [r| | |] eqn:E; try discriminate Ok_.
  exists r. split; [apply subs_g_refines; exact E|].
  unfold subs_g, subs_with in E. apply bind_ok in E. destruct E as ([r' v'] & Ea & E). injection E as <-.
  split.
  - exact (proj1 (s_apply (fun _ => qi_zero) (fun _ => qi_zero) sd (subs_pow kind) Hvals Hspk x Hnodes _ x (node_root x) _ _ _ Ea)).
  - intros rho rhoc.
    exact (proj1 (proj2 (s_apply rho rhoc sd (subs_pow kind) Hvals Hspk x Hnodes _ x (node_root x) _ _ _ Ea))).
Qed.

(* the same with the cache, where cache irrelevance applies *)
Theorem subs_sound_cached_guarded : forall kind sd x, subs_guard kind sd x = true -> keys_consistent sd x = true ->
  exists r, subs_gen kind true sd x = Ok r /\ wf r = true /\ forall rho rhoc : list N -> qi, qi_eq (denote rho rhoc r) (denote (subst_val rho rhoc sd) rhoc x).
Proof.
  intros kind sd x Gd Kc. destruct (subs_sound_guarded kind sd x Gd) as (r & E & W & V).
  exists r. rewrite (subs_cache_irrelevant_guarded kind sd x Kc). auto.
Qed.
