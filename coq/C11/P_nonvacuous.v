(* C11: the hypotheses of the theorems are satisfiable by non-trivial inputs, and the model computes the
   expected results on them. *)
From SE Require Import C11.SubsProofs C11.Examples Expr.Wf.
(* e = x**2*y + sin(x) + (x + y)**(-1): x occurs four times (shared equivalent nodes), a Mul, a Pow with an Add base *)
Definition e1 : expr :=
  EAdd (NInt 0) [(EMul (NInt 1) [(sx, ei 2); (sy, ei 1)], NInt 1); (EFunSym [102%N] [sx], NInt 1); (EPow x_plus_y (ei (-1)), NInt 3)].
Definition sd1 : mdict := [(sx, ei 2); (sy, EAdd (NInt 1) [(sz, NInt 1)])].
Example guard_holds : keys_consistent sd1 e1 = true.
Proof. rewrite keys_consistent_hashed. vm_compute. reflexivity. Qed.
Example key_occurs : occurs_any sd1 e1 = true.
Proof. vm_compute. reflexivity. Qed.
(* x -> 2, y -> z + 1:  4*(1 + z) + f(2) + 3/(3 + z)  (the product is not distributed) *)
Example result_cached : subs_gen KSubs true sd1 e1 =
  Ok (EAdd (NInt 0) [(EAdd (NInt 1) [(sz, NInt 1)], NInt 4); (EFunSym [102%N] [ei 2], NInt 1); (EPow (EAdd (NInt 3) [(sz, NInt 1)]) (ei (-1)), NInt 3)]).
Proof. vm_compute. reflexivity. Qed.
Example result_uncached : subs_gen KSubs false sd1 e1 = subs_gen KSubs true sd1 e1.
Proof. symmetry. apply subs_cache_irrelevant_guarded, guard_holds. Qed.
(* the guard of the kinds theorem holds for this map and fails for the single Pow key *)
Example kinds_guard : single_pow_key sd1 = false /\ single_pow_key [(EPow sx (ei 2), sy)] = true.
Proof. split; reflexivity. Qed.
(* the guard of cache irrelevance fails when equivalent nodes list their dictionaries in different orders *)
Example guard_fails : keys_consistent [] (EMul (NInt 1) [(x_plus_y, ei 2); (EFunSym [102%N] [EAdd (NInt 0) [(sx, NInt 1); (sy, NInt 1)]], ei 1)]) = false.
Proof. rewrite keys_consistent_hashed. vm_compute. reflexivity. Qed.

(* the guard of the soundness theorem: x**2*y + 3*x + (1 + y)**2/2 + 5 with x -> 2, y -> z + 1 (an expression-valued
   replacement; the result keeps 4*(1 + z) as a term), and the simultaneous swap x <-> y *)
From SE Require Import C11.SubsGuardedOps.
Definition e2 : expr :=
  EAdd (NInt 5) [(EMul (NInt 1) [(sx, ei 2); (sy, ei 1)], NInt 1); (sx, NInt 3); (EPow (EAdd (NInt 1) [(sy, NInt 1)]) (ei 2), NRat 1 2)].
Example sound_guard_holds : subs_guard KSubs sd1 e2 = true /\ keys_consistent sd1 e2 = true.
Proof. split; [|rewrite keys_consistent_hashed]; vm_compute; reflexivity. Qed.
Example sound_result : subs_gen KSubs false sd1 e2 =
  Ok (EAdd (NInt 11) [(EAdd (NInt 1) [(sz, NInt 1)], NInt 4); (EPow (EAdd (NInt 2) [(sz, NInt 1)]) (ei 2), NRat 1 2)]).
Proof. vm_compute. reflexivity. Qed.
Example sound_guard_swap : subs_guard KXreplace [(sx, sy); (sy, sx)] e2 = true.
Proof. vm_compute. reflexivity. Qed.
(* the guard rejects an expression-valued key and a negative exponent *)
Example sound_guard_rejects :
  subs_guard KSubs [(x_plus_y, sz)] (EMul (NInt 2) [(x_plus_y, ei 1)]) = false /\
  subs_guard KSubs sd1 (EPow sx (ei (-1))) = false.
Proof. split; vm_compute; reflexivity. Qed.
