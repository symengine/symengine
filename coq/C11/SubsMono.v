(* C11 -- the substitution visitors are monotone in their library calls: when every call of S1 that returns a
   value returns the same value under S2, so does the visitor ([bvisit_param] of C11/SubsCache.v, read with
   errors on the left related to anything).  Instance: the guarded calls of C11/SubsGuardedOps.v against the real
   ones ([subs_g_refines]). *)
From SE Require Import C11.SubsGuardedOps C11.SubsCache C09.ExpandMono.
Local Open Scope res_scope.

Lemma refines_rr : forall A (a b : res A), refines a b -> rr true eq a b.
Proof. intros A a b H. destruct a as [x| | |]; cbn; auto. rewrite (H x eq_refl). reflexivity. Qed.
Lemma rr_refines : forall A (a b : res A), rr true eq a b -> refines a b.
Proof. intros A a b H r ->. destruct b; cbn in H; try contradiction. subst. reflexivity. Qed.

Section Mono.
  Variables S1 S2 : sops.
  Hypothesis LE : sops_rel true S1 S2.
  Variables (sp : bool) (sd : mdict).

  Lemma apply_le : forall f cache vis x, rres true eq (apply S1 f sp cache sd vis x) (apply S2 f sp cache sd vis x).
  Proof.
    induction f as [|f IH]; intros cache vis x; [left; reflexivity|]. rewrite !apply_S.
    assert (B : rres true eq (bvisit S1 sp sd (apply S1 f sp cache sd) vis x) (bvisit S2 sp sd (apply S2 f sp cache sd) vis x)).
    { apply bvisit_param; [exact LE | intros y _ s1 s2 <-; apply IH | reflexivity]. }
    destruct cache.
    - destruct (mlookup x vis) as [[k v]|]; [apply rres_ret; reflexivity|].
      apply rres_bind; [exact B|]. intros r s1 s2 <-. apply rres_ret. reflexivity.
    - destruct (mlookup x sd) as [[k v]|]; [apply rres_ret; reflexivity | exact B].
  Qed.
End Mono.

Lemma guarded_rel_real : sops_rel true guarded_sops real_sops.
Proof.
  split; cbn [guarded_sops real_sops s_mul s_pow s_div s_add s_datn s_cdat s_nummul s_mfd s_afd]; intros;
    apply refines_rr; first [ apply refines_err | apply refines_guard ].
Qed.

(* a value returned by the guarded run is the value returned by the model *)
Theorem subs_g_refines : forall kind cache sd x r, subs_g kind cache sd x = Ok r -> subs_gen kind cache sd x = Ok r.
Proof.
  intros kind cache sd x. apply rr_refines. unfold subs_g, subs_gen, subs_with.
  eapply rr_bind; [apply (apply_le _ _ guarded_rel_real)|].
  intros [r1 s1] [r2 s2] [E _]. cbn in E. subst r2. reflexivity.
Qed.
