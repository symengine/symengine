(* C11 -- theorems about the substitution model: the four visitors on derivative-free input, cache
   irrelevance (from C11/SubsCache.v) under the boolean guard [keys_consistent], and subs = xreplace
   unless the map is a single Pow key. *)
From SE Require Import C11.SubsGuards C11.SubsCache Expr.ArithMulUnique.
From Coq Require Import Lia.
Local Open Scope res_scope.

Theorem msubs_is_xreplace : forall cache sd x, subs_gen KMsubs cache sd x = subs_gen KXreplace cache sd x.
Proof. reflexivity. Qed.
Theorem ssubs_is_xreplace : forall cache sd x, subs_gen KSsubs cache sd x = subs_gen KXreplace cache sd x.
Proof. reflexivity. Qed.

Lemma num_syn_eqb_eq : forall a b, num_syn_eqb a b = true -> a = b.
Proof.
  destruct a, b; cbn [num_syn_eqb]; intros H; try discriminate H;
    repeat match goal with
           | H : _ && _ = true |- _ => apply andb_prop in H; destruct H
           end;
    repeat match goal with
           | H : (_ =? _)%Z = true |- _ => apply Z.eqb_eq in H
           | H : (_ =? _)%positive = true |- _ => apply Pos.eqb_eq in H
           | H : (_ =? _)%N = true |- _ => apply N.eqb_eq in H
           end; subst; reflexivity.
Qed.
Lemma bytes_syn_eqb_eq : forall a b, bytes_syn_eqb a b = true -> a = b.
Proof.
  induction a as [|x a IH]; destruct b as [|y b]; cbn [bytes_syn_eqb]; intros H; try discriminate H; [reflexivity|].
  apply andb_prop in H. destruct H as [E H]. apply N.eqb_eq in E. subst. f_equal. now apply IH.
Qed.
Lemma list_syn_eqb_eq : forall (A : Type) (eqA : A -> A -> bool) a b,
  (forall x y, In x a -> eqA x y = true -> x = y) -> list_syn_eqb A eqA a b = true -> a = b.
Proof.
  intros A eqA. induction a as [|x a IH]; destruct b as [|y b]; cbn [list_syn_eqb]; intros K H; try discriminate H; [reflexivity|].
  apply andb_prop in H. destruct H as [E H]. f_equal; [apply K; [left; reflexivity | exact E]|].
  apply IH; [intros u v Hu; apply K; right; exact Hu | exact H].
Qed.

Lemma syn_eqb_eq : forall f a b, syn_eqb f a b = true -> a = b.
Proof.
  induction f as [|f IH]; intros a b H; [discriminate H|].
  assert (PL : forall l1 l2, list_syn_eqb expr (syn_eqb f) l1 l2 = true -> l1 = l2).
  { intros l1 l2. apply list_syn_eqb_eq. intros x y _. apply IH. }
  assert (PP : forall l1 l2 : list (expr * expr),
             list_syn_eqb (expr * expr) (fun p q => syn_eqb f (fst p) (fst q) && syn_eqb f (snd p) (snd q)) l1 l2 = true -> l1 = l2).
  { intros l1 l2. apply list_syn_eqb_eq. intros [x1 x2] [y1 y2] _ E. cbn [fst snd] in E.
    apply andb_prop in E. destruct E as [E1 E2]. f_equal; apply IH; assumption. }
  assert (PA : forall l1 l2 : list (expr * number),
             list_syn_eqb (expr * number) (fun p q => syn_eqb f (fst p) (fst q) && num_syn_eqb (snd p) (snd q)) l1 l2 = true -> l1 = l2).
  { intros l1 l2. apply list_syn_eqb_eq. intros [x1 x2] [y1 y2] _ E. cbn [fst snd] in E.
    apply andb_prop in E. destruct E as [E1 E2]. f_equal; [apply IH | apply num_syn_eqb_eq]; assumption. }
  destruct a, b; cbn [syn_eqb] in H; try discriminate H;
    repeat match goal with
           | H : _ && _ = true |- _ => apply andb_prop in H; destruct H
           end;
    repeat match goal with
           | H : num_syn_eqb _ _ = true |- _ => apply num_syn_eqb_eq in H
           | H : bytes_syn_eqb _ _ = true |- _ => apply bytes_syn_eqb_eq in H
           | H : syn_eqb f _ _ = true |- _ => apply IH in H
           | H : list_syn_eqb expr _ _ _ = true |- _ => apply PL in H
           | H : list_syn_eqb (expr * expr) _ _ _ = true |- _ => apply PP in H
           | H : list_syn_eqb (expr * number) _ _ _ = true |- _ => apply PA in H
           | H : (_ =? _)%N = true |- _ => apply N.eqb_eq in H
           | H : Bool.eqb _ _ = true |- _ => apply Bool.eqb_prop in H
           end; subst; reflexivity.
Qed.
Lemma expr_syn_eqb_eq : forall a b, expr_syn_eqb a b = true -> a = b.
Proof. intros a b. apply syn_eqb_eq. Qed.

(* keys_consistent with the hash of each node taken once.
   [key_equiv] takes the hashes of its two arguments anew at every call, and [keys_consistent] calls it on all pairs
   of nodes: evaluated as it stands, it hashes every node some 8n times.  Pairing each node with its hash first
   gives the same boolean with n hash computations (the kernel shares the value of [snd p]). *)
Definition with_hash (a : expr) : expr * N := (a, hash a).
Definition keyless_h (p q : expr * N) : bool :=
  if negb (snd p =? snd q)%N then (snd p <? snd q)%N
  else if expr_eqb (fst p) (fst q) then false else (expr_cmp (fst p) (fst q) =? -1)%Z.
Definition key_equiv_h (p q : expr * N) : bool := negb (keyless_h p q) && negb (keyless_h q p).
Definition keys_consistent_h (sd : mdict) (x : expr) : bool :=
  let hs := map with_hash (visited_nodes x ++ map fst sd) in
  forallb (fun p => forallb (fun q => implb (key_equiv_h p q) (expr_syn_eqb (fst p) (fst q))) hs) hs
  && msorted sd && forallb (fun p => wf (fst p)) sd && forallb wf (visited_nodes x).

Lemma keys_consistent_hashed : forall sd x, keys_consistent sd x = keys_consistent_h sd x.
Proof.
  intros sd x. unfold keys_consistent, keys_consistent_h. cbv zeta. do 3 f_equal.
  generalize (visited_nodes x ++ map fst sd) at 2 4 as ns. generalize (visited_nodes x ++ map fst sd) as ms.
  intros ms ns. induction ns as [|a ns IH]; cbn [map forallb]; [reflexivity|]. rewrite IH. clear IH. f_equal.
  induction ms as [|b ms IHm]; cbn [map forallb]; [reflexivity|]. rewrite IHm. reflexivity.
Qed.

Theorem subs_cache_irrelevant_guarded : forall kind sd x, keys_consistent sd x = true ->
  subs_gen kind true sd x = subs_gen kind false sd x.
Proof.
  intros kind sd x G. unfold keys_consistent in G.
  apply andb_prop in G. destruct G as [G Gn]. apply andb_prop in G. destruct G as [G Gw].
  apply andb_prop in G. destruct G as [Gs Gm].
  assert (Hwf : forall p, In p sd -> wf (fst p) = true).
  { intros p Hp. rewrite forallb_forall in Gw. apply Gw. exact Hp. }
  assert (Hsorted : ssorted sd) by (apply msorted_ssorted; assumption).
  assert (Hnwf : forall y, node x y -> wf y = true).
  { intros y Hy. rewrite forallb_forall in Gn. apply Gn. exact Hy. }
  assert (Hsyn : forall a b, (node x a \/ In a (map fst sd)) -> (node x b \/ In b (map fst sd)) ->
                             key_equiv a b = true -> a = b).
  { intros a b Ha Hb E. rewrite forallb_forall in Gs.
    assert (Ia : In a (visited_nodes x ++ map fst sd)) by (apply in_or_app; exact Ha).
    assert (Ib : In b (visited_nodes x ++ map fst sd)) by (apply in_or_app; exact Hb).
    specialize (Gs a Ia). rewrite forallb_forall in Gs. specialize (Gs b Ib). rewrite E in Gs. cbn [implb] in Gs.
    apply expr_syn_eqb_eq. exact Gs. }
  unfold subs_gen, subs_with.
  pose proof (cached_simulates real_sops (subs_pow kind) sd x Hsyn Hwf Hnwf (subs_fuel x) x sd []
                (Nat.lt_succ_diag_r _) (node_root x) (inv_init real_sops (subs_pow kind) sd x Hsyn Hsorted Hwf)) as S.
  revert S. apply rr_strict_bind. intros [r1 s1] [r2 s2] [E _]. cbn in E. subst r2. reflexivity.
Qed.

Lemma pow_result_switch : forall Sp sd x b e b' e', single_pow_key sd = false ->
  pow_result Sp true sd x b e b' e' = pow_result Sp false sd x b e b' e'.
Proof.
  intros Sp sd x b e b' e' G. unfold pow_result.
  destruct sd as [|[k v] [|p sd]]; try reflexivity; [|destruct k; reflexivity].
  destruct k; try reflexivity. cbn [single_pow_key] in G. destruct k2; try reflexivity; discriminate G.
Qed.

Lemma bvisit_switch : forall Sp sd ap vis x, single_pow_key sd = false ->
  bvisit Sp true sd ap vis x = bvisit Sp false sd ap vis x.
Proof.
  intros Sp sd ap vis x G. destruct x; try reflexivity. cbn [bvisit].
  destruct (ap vis x1) as [[b' v1]| | |]; cbn [bind]; try reflexivity.
  destruct (ap v1 x2) as [[e' v2]| | |]; cbn [bind]; try reflexivity.
  rewrite (pow_result_switch Sp sd _ _ _ _ _ G). reflexivity.
Qed.

Lemma bind_ret : forall A (a : res A), bind a (fun x => Ok x) = a.
Proof. intros A a. destruct a; reflexivity. Qed.
Lemma rres_eq : forall A (a b : res (A * mdict)), rres false eq a b -> a = b.
Proof.
  intros A a b H. rewrite <- (bind_ret _ a), <- (bind_ret _ b). revert H. apply rr_strict_bind.
  intros [x1 s1] [x2 s2] [E1 E2]. cbn in E1, E2. subst. reflexivity.
Qed.
Lemma rres_eq_refl : forall A (a : res (A * mdict)), rres false eq a a.
Proof. intros A a. destruct a as [[x s]| | |]; cbn; auto. Qed.

Lemma apply_switch : forall Sp sd, single_pow_key sd = false ->
  forall f cache vis x, apply Sp f true cache sd vis x = apply Sp f false cache sd vis x.
Proof.
  intros Sp sd G. induction f as [|f IH]; intros cache vis x; [reflexivity|].
  rewrite !apply_S.
  assert (B : bvisit Sp true sd (apply Sp f true cache sd) vis x = bvisit Sp false sd (apply Sp f false cache sd) vis x).
  { rewrite bvisit_switch by exact G. apply rres_eq. apply bvisit_param; [apply sops_rel_refl | | reflexivity].
    intros y _ s1 s2 <-. rewrite IH. apply rres_eq_refl. }
  destruct cache.
  - destruct (mlookup x vis) as [[k v]|]; [reflexivity|]. rewrite B. reflexivity.
  - destruct (mlookup x sd) as [[k v]|]; [reflexivity|]. exact B.
Qed.

Theorem subs_is_xreplace_guarded : forall cache sd x, single_pow_key sd = false ->
  subs_gen KSubs cache sd x = subs_gen KXreplace cache sd x.
Proof. intros cache sd x G. unfold subs_gen, subs_with. cbn [subs_pow]. rewrite (apply_switch real_sops sd G). reflexivity. Qed.
