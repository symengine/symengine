From SE Require Import Assume.AssumeSem Assume.RefineModel Assume.C34Theorems Assume.RefineProofs.

(* refine(abs(a)): [na] is the refined argument, z its value, w the value of abs(na).
   id: the rule returns na; neg: it returns -na; conj: na = conjugate(u) and it returns abs(u) *)
Theorem C35_abs_rule_sound : forall rho st A, assum_of st = Ok A -> osat rho st ->
  (forall na z w, refine_abs A na = DId -> vfin (denote rho na) = Some z -> qi_abs z = Some w -> qi_eq w z) /\
  (forall na z w, refine_abs A na = DNeg -> vfin (denote rho na) = Some z -> qi_abs z = Some w -> qi_eq w (qi_opp z)) /\
  (forall na inner zi w1 w2, refine_abs A na = DConj -> na = EF1 TC_Conjugate inner ->
     vfin (denote rho inner) = Some zi -> qi_abs (qi_conj zi) = Some w1 -> qi_abs zi = Some w2 -> qi_eq w1 w2).
Proof.
  intros rho st A HA HS. pose proof (assum_of_ok rho st A HA HS) as O. split; [|split].
  - exact (abs_rule_id rho A O).
  - exact (abs_rule_neg rho A O).
  - exact (abs_rule_conj rho A).
Qed.
Print Assumptions C35_abs_rule_sound.
