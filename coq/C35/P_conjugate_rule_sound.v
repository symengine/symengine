From SE Require Import Assume.AssumeSem Assume.RefineModel Assume.C34Theorems Assume.RefineProofs.

(* refine(conjugate(a)) -> a when is_real(a) *)
Theorem C35_conjugate_rule_sound : forall rho st A, assum_of st = Ok A -> osat rho st ->
  forall na z, refine_conjugate A na = DId -> keys_ok na = true ->
  vfin (denote rho na) = Some z -> qi_eq (qi_conj z) z.
Proof.
  intros rho st A HA HS. exact (conjugate_rule_id rho A (assum_of_ok rho st A HA HS)).
Qed.
Print Assumptions C35_conjugate_rule_sound.
