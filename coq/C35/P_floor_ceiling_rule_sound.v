From SE Require Import Assume.AssumeSem Assume.RefineModel Assume.C34Theorems Assume.RefineProofs.

(* refine(floor(a)) -> a for an integer a, -> -ceiling(-a) (an identity); same for ceiling *)
Theorem C35_floor_ceiling_rule_sound : forall rho st A, assum_of st = Ok A -> osat rho st ->
  (forall na z w, refine_floor A na true = DId \/ refine_floor A na false = DId -> keys_ok na = true ->
     vfin (denote rho na) = Some z -> qi_floor z = Some w -> qi_eq w z) /\
  (forall na z w, refine_ceiling A na true = DId \/ refine_ceiling A na false = DId -> keys_ok na = true ->
     vfin (denote rho na) = Some z -> qi_ceiling z = Some w -> qi_eq w z) /\
  (forall z w c, qi_floor z = Some w -> qi_ceiling (qi_opp z) = Some c -> qi_eq w (qi_opp c)) /\
  (forall z w c, qi_ceiling z = Some w -> qi_floor (qi_opp z) = Some c -> qi_eq w (qi_opp c)).
Proof.
  intros rho st A HA HS. pose proof (assum_of_ok rho st A HA HS) as O. split; [|split; [|split]].
  - exact (floor_rule_id rho A O).
  - exact (ceiling_rule_id rho A O).
  - exact floor_rule_flip.
  - exact ceiling_rule_flip.
Qed.
Print Assumptions C35_floor_ceiling_rule_sound.
