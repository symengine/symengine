(* C19 -- one node: load_basic applied to the values save_basic wrote rebuilds the node. *)
From SE Require Import Codec.CodecSpec Codec.CodecBytes.
From Coq Require Import Lia.
Local Open Scope N_scope.
Local Open Scope res_scope.

(* a sequence of nodes, pairs of nodes or (node, number) pairs is written as the rows [map row1 l],
   [map row2 d], [map row2n d]; rows1 / rows2 / rows_num read back exactly these *)
Lemma rows1_map : forall l, rows1 (map row1 l) = Ok l.
Proof. induction l as [|a l IH]; [reflexivity|]. cbn [map row1 rows1]. rewrite IH. reflexivity. Qed.

Lemma rows2_map : forall d, rows2 (map row2 d) = Ok d.
Proof.
  induction d as [|[a b] d IH]; [reflexivity|]. cbn [map row2 rows2 fst snd]. rewrite IH. reflexivity.
Qed.

Definition num_pair (p : expr * number) : expr * expr := (fst p, ENum (snd p)).

Lemma row2n_eq : forall d, map row2n d = map row2 (map num_pair d).
Proof. intros d. rewrite map_map. reflexivity. Qed.

Lemma rows_num_map : forall d, rows_num (map num_pair d) = Ok d.
Proof.
  induction d as [|[a b] d IH]; [reflexivity|]. cbn [map num_pair rows_num fst snd as_num bind]. rewrite IH. reflexivity.
Qed.

Lemma rows1_inv : forall rows l, rows1 rows = Ok l -> rows = map row1 l.
Proof.
  induction rows as [|r rows IH]; intros l H; cbn [rows1] in H; [injection H as <-; reflexivity|].
  destruct r as [|[?|?|a] [|? ?]]; try discriminate H.
  destruct (rows1 rows) as [l'| | |]; try discriminate H.
  injection H as <-. cbn [map row1]. f_equal. apply IH. reflexivity.
Qed.

Lemma rows2_inv : forall rows d, rows2 rows = Ok d -> rows = map row2 d.
Proof.
  induction rows as [|r rows IH]; intros d H; cbn [rows2] in H; [injection H as <-; reflexivity|].
  destruct r as [|[?|?|a] [|[?|?|b] [|? ?]]]; try discriminate H.
  destruct (rows2 rows) as [d'| | |]; try discriminate H.
  injection H as <-. cbn [map row2 fst snd]. f_equal. apply IH. reflexivity.
Qed.

Lemma rows_num_inv : forall l d, rows_num l = Ok d -> l = map num_pair d.
Proof.
  induction l as [|[a b] l IH]; intros d H; cbn [rows_num] in H; [injection H as <-; reflexivity|].
  destruct b; try discriminate H. cbn [as_num bind] in H.
  destruct (rows_num l) as [d'| | |]; try discriminate H.
  injection H as <-. cbn [map num_pair fst snd]. f_equal. apply IH. reflexivity.
Qed.

(* the nodes in such rows *)
Lemma row1_kids : forall l, flat_map row_kids (map row1 l) = l.
Proof. induction l as [|a l IH]; [reflexivity|]. cbn. f_equal. exact IH. Qed.

Lemma row2_kids : forall d, flat_map row_kids (map row2 d) = flat_map (fun p => [fst p; snd p]) d.
Proof. induction d as [|p d IH]; [reflexivity|]. cbn. do 2 f_equal. exact IH. Qed.

(* kl_build, ms_build and um_build fold an insertion over the rows.  Two facts about such a fold,
   whatever the insertion: it holds nothing but what was inserted; and over rows that are already
   in the container's order, where every insertion goes to the end, it returns the rows. *)
Section FoldInsert.
  Context {A : Type} (ins : list A -> A -> list A).

  Lemma fold_ins_in : (forall m a x, In x (ins m a) -> x = a \/ In x m) ->
    forall d acc x, In x (fold_left ins d acc) -> In x acc \/ In x d.
  Proof.
    intros S. induction d as [|a d IH]; intros acc x H; cbn [fold_left] in H; [left; exact H|].
    destruct (IH _ x H) as [I|I]; [|right; right; exact I].
    destruct (S acc a x I) as [->|J]; [right; left; reflexivity | left; exact J].
  Qed.

  (* [sorted]: every element is in relation R to the later ones *)
  Variables (R : A -> A -> bool) (sorted : list A -> bool).
  Hypothesis sorted_cons : forall x r, sorted (x :: r) = forallb (R x) r && sorted r.
  Hypothesis ins_end : forall m a, forallb (fun x => R x a) m = true -> ins m a = m ++ [a].

  Lemma fold_ins_sorted : forall d acc,
    (forall x y, In x acc -> In y d -> R x y = true) -> sorted d = true ->
    fold_left ins d acc = acc ++ d.
  Proof using sorted_cons ins_end.
    induction d as [|a d IH]; intros acc H S; [cbn; symmetry; apply app_nil_r|].
    rewrite sorted_cons in S. apply andb_prop in S. destruct S as [S1 S2].
    cbn [fold_left]. rewrite ins_end.
    - rewrite IH; [rewrite <- app_assoc; reflexivity | | exact S2].
      intros x y Hx Hy. apply in_app_or in Hx. destruct Hx as [Hx|[<-|[]]].
      + apply H; [exact Hx | right; exact Hy].
      + rewrite forallb_forall in S1. apply S1. exact Hy.
    - apply forallb_forall. intros x Hx. apply (H x a); [exact Hx | left; reflexivity].
  Qed.

  Corollary build_sorted : forall d, sorted d = true -> fold_left ins d [] = d.
  Proof using sorted_cons ins_end. intros d S. apply (fold_ins_sorted d []); [intros x y [] | exact S]. Qed.
End FoldInsert.

Lemma kl_insert_end : forall {V} k (v : V) m,
  forallb (fun x => expr_keyless (fst x) k) m = true -> kl_insert k v m = m ++ [(k, v)].
Proof.
  intros V k v. induction m as [|[k' v'] m IH]; intros H; [reflexivity|].
  cbn [forallb fst] in H. apply andb_prop in H. destruct H as [H1 H2].
  cbn [kl_insert]. rewrite H1. cbn [app]. f_equal. apply IH. exact H2.
Qed.

Lemma kl_build_sorted : forall {V} (d : list (expr * V)), kl_sorted d = true -> kl_build d = d.
Proof.
  intros V. apply (build_sorted _ (fun x y => expr_keyless (fst x) (fst y)) kl_sorted); [reflexivity|].
  intros m [k v]. apply kl_insert_end.
Qed.

Lemma set_sorted_kl : forall l, set_sorted l = true -> kl_sorted (map (fun k => (k, tt)) l) = true.
Proof.
  induction l as [|x l IH]; [reflexivity|]. cbn [set_sorted map kl_sorted fst]. intros H.
  apply andb_prop in H. destruct H as [H1 H2]. rewrite IH by exact H2. rewrite andb_true_r.
  rewrite forallb_forall in *. intros y Hy. apply in_map_iff in Hy. destruct Hy as [z [<- Hz]]. cbn. apply H1. exact Hz.
Qed.

Lemma set_build_sorted : forall l, set_sorted l = true -> set_build l = l.
Proof.
  intros l S. unfold set_build. rewrite kl_build_sorted by (apply set_sorted_kl; exact S).
  rewrite map_map. cbn. apply map_id.
Qed.

Lemma ms_insert_end : forall k m,
  forallb (fun x => negb (expr_keyless k x)) m = true -> ms_insert k m = m ++ [k].
Proof.
  intros k. induction m as [|k' m IH]; intros H; [reflexivity|].
  cbn [forallb] in H. apply andb_prop in H. destruct H as [H1 H2].
  cbn [ms_insert]. apply negb_true_iff in H1. rewrite H1. cbn [app]. f_equal. apply IH. exact H2.
Qed.

Lemma ms_build_sorted : forall l, ms_sorted l = true -> ms_build l = l.
Proof.
  apply (build_sorted _ (fun x y => negb (expr_keyless y x)) ms_sorted); [reflexivity|].
  intros m k. apply ms_insert_end.
Qed.

Lemma um_mem_none : forall {V} (p : expr * V) (m : list (expr * V)),
  forallb (fun x => negb ((hash (fst x) =? hash (fst p)) && expr_eqb (fst x) (fst p))) m = true ->
  um_mem (fst p) m = false.
Proof.
  intros V p. induction m as [|x m IH]; intros H; [reflexivity|].
  cbn [forallb] in H. apply andb_prop in H. destruct H as [H1 H2]. apply negb_true_iff in H1.
  unfold um_mem. cbn [existsb]. rewrite H1. exact (IH H2).
Qed.

Lemma um_build_distinct : forall {V} (d : list (expr * V)), um_distinct d = true -> um_build d = d.
Proof.
  intros V.
  apply (build_sorted _ (fun x y => negb ((hash (fst x) =? hash (fst y)) && expr_eqb (fst x) (fst y))) um_distinct);
    [reflexivity|].
  intros m p H. rewrite (um_mem_none p m H). reflexivity.
Qed.

Lemma rat_norm_canonical : forall n d,
  (Z.gcd n (Zpos d) =? 1)%Z = true -> (1 <? Zpos d)%Z = true -> rat_norm n (Zpos d) = NRat n d.
Proof.
  intros n d G L. unfold rat_norm. apply Z.eqb_eq in G. apply Z.ltb_lt in L.
  replace (Z.pos d =? 0)%Z with false by reflexivity. rewrite G.
  replace (Z.pos d <? 0)%Z with false by reflexivity.
  rewrite Z.div_1_r. cbn [Z.abs]. rewrite Z.div_1_r.
  replace (Z.pos d =? 1)%Z with false by (symmetry; apply Z.eqb_neq; lia).
  reflexivity.
Qed.

Lemma rat_parts_number : forall n d, rat_parts (rat_number n d) = Some (n, d).
Proof.
  intros n d. unfold rat_number. destruct (d =? 1)%positive eqn:E; [|reflexivity].
  apply Pos.eqb_eq in E. subst. reflexivity.
Qed.

Lemma b2n_back : forall b, (b2n b =? 1) = b.
Proof. destruct b; reflexivity. Qed.
Lemma b2n_small : forall b, (1 <? b2n b) = false.
Proof. destruct b; reflexivity. Qed.
Lemma ltb_of_leb : forall a b, (S a <=? b)%nat = true -> (b <? S a)%nat = false.
Proof. intros a b H. apply Nat.leb_le in H. apply Nat.ltb_ge. exact H. Qed.

Lemma ckind_beq_eq : forall a b, ckind_beq a b = true -> a = b.
Proof. exact internal_ckind_dec_bl. Qed.

Theorem node_build : forall e, node_ser e = true -> build (type_code e) (vals_of e) = Ok e.
Proof.
  intros e H. unfold node_ser in H. apply andb_prop in H. destruct H as [_ H].
  destruct (schema_k (kind_of (type_code e))) as [sch|] eqn:SK; [|discriminate].
  apply andb_prop in H. destruct H as [TY CO].
  destruct e as [n|s|s i|s|c d|c d|a b|c a|c a b|c l|s l|c a b|a l|a d|l|b|s x lo ro|c];
    cbn [type_code vals_of class_ok] in *.
  - (* numbers *)
    destruct n as [z|n d|rn rd imn imd|b|re im|d|]; cbn [num_type_code vals_of] in *; unfold build.
    + change (kind_of TC_Integer) with KInteger. rewrite parse_dec_string. reflexivity.
    + change (kind_of TC_Rational) with KRational. cbn [enum].
      apply andb_prop in CO. destruct CO as [G L]. rewrite rat_norm_canonical by assumption. reflexivity.
    + change (kind_of TC_Complex) with KComplex. cbn [enum as_num bind]. unfold cplx_build.
      rewrite !rat_parts_number. apply negb_true_iff in CO. rewrite CO. reflexivity.
    + change (kind_of TC_RealDouble) with KRealDouble. reflexivity.
    + change (kind_of TC_ComplexDouble) with KComplexDouble. reflexivity.
    + change (kind_of TC_Infty) with KInfty. reflexivity.
    + change (kind_of TC_NaN) with KNaN. reflexivity.
  - unfold build. change (kind_of TC_Symbol) with KSymbol. reflexivity.
  - unfold build. change (kind_of TC_Dummy) with KDummy. reflexivity.
  - unfold build. change (kind_of TC_Constant) with KConstant. reflexivity.
  - unfold build. change (kind_of TC_Add) with KAdd. cbn [enum as_num bind].
    rewrite row2n_eq, rows2_map. cbn [bind]. rewrite rows_num_map. cbn [bind].
    rewrite um_build_distinct by exact CO. reflexivity.
  - unfold build. change (kind_of TC_Mul) with KMul. cbn [enum as_num bind].
    rewrite rows2_map. cbn [bind]. rewrite kl_build_sorted by exact CO. reflexivity.
  - unfold build. change (kind_of TC_Pow) with KPow. reflexivity.
  - unfold build. apply orb_prop in CO. destruct CO as [K|K]; apply ckind_beq_eq in K; rewrite K; reflexivity.
  - unfold build. apply ckind_beq_eq in CO. rewrite CO. reflexivity.
  - unfold build. destruct (kind_of c) eqn:K; try discriminate; rewrite rows1_map; cbn [bind].
    + apply andb_prop in CO. destruct CO as [CS CL]. rewrite set_build_sorted by exact CS.
      rewrite (ltb_of_leb _ _ CL). reflexivity.
    + rewrite (ltb_of_leb _ _ CO). reflexivity.
    + apply andb_prop in CO. destruct CO as [CS CL]. rewrite set_build_sorted by exact CS.
      rewrite (ltb_of_leb _ _ CL). reflexivity.
    + rewrite set_build_sorted by exact CO. reflexivity.
    + rewrite (ltb_of_leb _ _ CO). reflexivity.
  - unfold build. change (kind_of TC_FunctionSymbol) with KFunctionSymbol. rewrite rows1_map. reflexivity.
  - unfold build. apply orb_prop in CO. destruct CO as [K|K]; apply ckind_beq_eq in K; rewrite K; reflexivity.
  - unfold build. change (kind_of TC_Derivative) with KDerivative. rewrite rows1_map. cbn [bind].
    rewrite ms_build_sorted by exact CO. reflexivity.
  - unfold build. change (kind_of TC_Subs) with KSubs. rewrite rows2_map. cbn [bind].
    rewrite kl_build_sorted by exact CO. reflexivity.
  - unfold build. change (kind_of TC_Piecewise) with KPiecewise. rewrite rows2_map. cbn [bind].
    rewrite (ltb_of_leb _ _ CO). reflexivity.
  - unfold build. change (kind_of TC_BooleanAtom) with KBooleanAtom. rewrite b2n_small, b2n_back. reflexivity.
  - unfold build. change (kind_of TC_Interval) with KInterval. rewrite !b2n_small, !b2n_back. reflexivity.
  - unfold build. apply ckind_beq_eq in CO. rewrite CO. reflexivity.
Qed.

Lemma node_schema : forall e, node_ser e = true ->
  exists sch, schema_k (kind_of (type_code e)) = Some sch /\ fvals_typed sch (vals_of e) = true
              /\ type_code e < TC_Count.
Proof.
  intros e H. unfold node_ser in H. apply andb_prop in H. destruct H as [C H].
  destruct (schema_k (kind_of (type_code e))) as [sch|]; [|discriminate].
  apply andb_prop in H. destruct H as [TY _]. exists sch. repeat split; [exact TY|].
  apply N.ltb_lt. exact C.
Qed.
