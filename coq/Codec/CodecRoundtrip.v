(* C19 -- decode (encode w) = w for labelled DAGs: the codec induction with the invariant that
   relates the encoder's set of written ids to the decoder's id table. *)
From SE Require Import Codec.CodecSpec Codec.CodecBytes Codec.CodecTotal Codec.CodecNode.
From Coq Require Import Lia.
Local Open Scope N_scope.
Local Open Scope res_scope.

Lemma wtree_ind2 : forall (P : wtree -> Prop),
  (forall a e ks, Forall P ks -> P (WT a e ks)) -> forall w, P w.
Proof.
  intros P H. fix IH 1. intros [a e ks]. apply H.
  induction ks as [|k ks IHks]; constructor; [apply IH | exact IHks].
Qed.

Lemma enc_node_eq : forall sw a e ks seen,
  enc_node sw (WT a e ks) seen =
  if memN a seen then (wr_uint sw 8 a ++ [0], seen)
  else let '(kb, seen') := enc_forest sw ks seen in
       (wr_uint sw 8 a ++ [1; type_code e] ++ enc_payload sw e kb, a :: seen').
Proof.
  intros. cbn [enc_node]. destruct (memN a seen); [reflexivity|].
  assert (E : forall l s,
    (fix go (ks0 : list wtree) (seen0 : list N) {struct ks0} : list (list N) * list N :=
       match ks0 with
       | [] => ([], seen0)
       | k :: r => let '(b, s1) := enc_node sw k seen0 in let '(bs, s2) := go r s1 in (b :: bs, s2)
       end) l s = enc_forest sw l s).
  { induction l as [|k l IHl]; intros s; [reflexivity|]. cbn [enc_forest].
    destruct (enc_node sw k s) as [b s1]. rewrite IHl. reflexivity. }
  rewrite E. reflexivity.
Qed.

Lemma subtrees_eq : forall a e ks, subtrees (WT a e ks) = WT a e ks :: flat_map subtrees ks.
Proof.
  intros. cbn [subtrees]. reflexivity.
Qed.

Lemma subtrees_self : forall w, In w (subtrees w).
Proof. intros [a e ks]. rewrite subtrees_eq. left. reflexivity. Qed.

Lemma subtrees_kid : forall a e ks k s, In k ks -> In s (subtrees k) -> In s (subtrees (WT a e ks)).
Proof. intros. rewrite subtrees_eq. right. apply in_flat_map. exists k. split; assumption. Qed.

Fixpoint max_wfuel (ks : list wtree) : nat :=
  match ks with [] => O | k :: r => Nat.max (wfuel k) (max_wfuel r) end.

Lemma wfuel_eq : forall a e ks, wfuel (WT a e ks) = S (nrows e + max_wfuel ks).
Proof.
  intros. cbn [wfuel]. reflexivity.
Qed.

Lemma max_wfuel_in : forall ks k, In k ks -> (wfuel k <= max_wfuel ks)%nat.
Proof.
  induction ks as [|x ks IH]; intros k H; [destruct H|].
  destruct H as [<-|H]; cbn [max_wfuel]; [lia|]. specialize (IH k H). lia.
Qed.

Lemma rd_byte : forall sw b rest, rd_uint sw 1 (b :: rest) = Ok (b, rest).
Proof.
  intros. unfold rd_uint, take. cbn [length Nat.leb firstn skipn].
  destruct sw; cbn [rev app le_val]; rewrite N.mul_0_r, N.add_0_r; reflexivity.
Qed.

Lemma dec_rows_succ : forall rec sw k n elem st,
  dec_rows rec sw (S k) (N.succ n) elem st =
  (do '(row, st1) <- dec_svals rec sw elem st;
   do '(rows, st2) <- dec_rows rec sw k n elem st1; Ok (row :: rows, st2)).
Proof.
  intros. cbn [dec_rows]. rewrite N.sub_1_r, N.pred_succ.
  destruct (N.eqb_spec (N.succ n) 0) as [E|_]; [destruct (N.succ_0_discr _ E) | reflexivity].
Qed.

Lemma W64_pow : W64 = 256 ^ N.of_nat 8.
Proof. reflexivity. Qed.

Lemma memN_cons : forall a b l, memN a (b :: l) = (a =? b) || memN a l.
Proof. reflexivity. Qed.

Definition table := list (N * wtree).

(* fuel k suffices for the rows of a sequence; [nrows] (in [wfuel]) adds the lengths up *)
Definition rows_le (k : nat) (v : fval expr) : Prop :=
  match v with FL rows => (length rows <= k)%nat | FV _ => True end.

Lemma rows_le_sum : forall vs k,
  (fold_right (fun v acc => match v with FL rows => length rows + acc | _ => acc end) O vs <= k)%nat ->
  Forall (rows_le k) vs.
Proof.
  induction vs as [|v vs IH]; intros k H; constructor; cbn [fold_right] in H.
  - destruct v; cbn; [exact I | lia].
  - apply IH. destruct v; lia.
Qed.

Section Fields.
  Variable rec : tclass -> dstate -> res (wtree * dstate).
  Variable sw : bool.

  (* the children [ks], whose encodings are the first elements of [kb], are decoded one after the
     other, taking the table from t to t'; kb' is what remains of kb *)
  Inductive KD : list wtree -> list (list N) -> table -> table -> list (list N) -> Prop :=
  | KD_nil : forall kb t, KD [] kb t t kb
  | KD_cons : forall k ks b kb t t' t'' kb',
      (forall rest T, derives (type_code (wt_expr k)) T = true ->
                      rec T (b ++ rest, t) = Ok (k, (rest, t'))) ->
      KD ks kb t' t'' kb' -> KD (k :: ks) (b :: kb) t t'' kb'.

  Lemma KD_nil_inv : forall kb t t' kb', KD [] kb t t' kb' -> t' = t /\ kb' = kb.
  Proof. intros kb t t' kb' H. inversion H. split; reflexivity. Qed.

  Lemma KD_cons_inv : forall k ks kb t t'' kb', KD (k :: ks) kb t t'' kb' ->
    exists b kb0 t', kb = b :: kb0 /\ KD ks kb0 t' t'' kb' /\
      forall rest T, derives (type_code (wt_expr k)) T = true -> rec T (b ++ rest, t) = Ok (k, (rest, t')).
  Proof.
    intros k ks kb t t'' kb' H. inversion H as [|k0 ks0 b kb0 t0 t1 t2 kb1 S R]; subst.
    exists b, kb0, t1. split; [reflexivity | split; assumption].
  Qed.

  Lemma KD_app : forall ks1 ks2 kb t t'' kb'',
    KD (ks1 ++ ks2) kb t t'' kb'' ->
    exists t' kb', KD ks1 kb t t' kb' /\ KD ks2 kb' t' t'' kb''.
  Proof.
    induction ks1 as [|k ks1 IH]; intros ks2 kb t t'' kb'' H.
    - exists t, kb. split; [constructor | exact H].
    - cbn [app] in H. apply KD_cons_inv in H. destruct H as [b [kb0 [t1 [-> [R S]]]]].
      destruct (IH ks2 kb0 t1 t'' kb'' R) as [t' [kb' [A B]]].
      exists t', kb'. split; [econstructor; eassumption | exact B].
  Qed.

  (* from the bytes that [enc] writes, taking the children's encodings from kb, [dec] reads back a
     labelled value: it is v when the labels are dropped ([unl]), and its nodes are ks *)
  Definition reads_back {V W} (enc : list (list N) -> list N * list (list N))
      (dec : dstate -> res (W * dstate)) (unl : W -> V) (nodes : W -> list wtree)
      (v : V) (ks : list wtree) : Prop :=
    forall kb t t' kb', KD ks kb t t' kb' ->
    exists v' bytes, enc kb = (bytes, kb') /\
      (forall rest, dec (bytes ++ rest, t) = Ok (v', (rest, t'))) /\
      unl v' = v /\ nodes v' = ks.

  (* a value without nodes: its bytes are the same whatever kb, and reading them leaves the table *)
  Lemma reads_back_leaf : forall {V W} (enc : list (list N) -> list N * list (list N))
      (dec : dstate -> res (W * dstate)) (unl : W -> V) (nodes : W -> list wtree) v v' bytes ks,
    map wt_expr ks = [] -> (forall kb, enc kb = (bytes, kb)) ->
    (forall rest t, dec (bytes ++ rest, t) = Ok (v', (rest, t))) ->
    unl v' = v -> nodes v' = [] ->
    reads_back enc dec unl nodes v ks.
  Proof.
    intros V W enc dec unl nodes v v' bytes [|? ?] MK E D U S kb t t' kb' K; [|discriminate MK].
    apply KD_nil_inv in K. destruct K as [-> ->]. exists v', bytes.
    split; [apply E|]. split; [intros rest; apply D|]. split; [exact U | exact S].
  Qed.

  Lemma reads_back_nil : forall {V W} (unl : W -> V) (nodes : W -> list wtree) ks, map wt_expr ks = [] ->
    reads_back (fun kb => ([], kb)) (fun st => Ok ([], st)) (map unl) (flat_map nodes) [] ks.
  Proof.
    intros V W unl nodes ks MK.
    exact (reads_back_leaf _ _ _ _ [] [] [] ks MK (fun _ => eq_refl) (fun _ _ => eq_refl) eq_refl eq_refl).
  Qed.

  (* sequential composition: a value, then the values after it *)
  Lemma reads_back_cons : forall {V W} {enc1} {dec1 : dstate -> res (W * dstate)} {unl : W -> V} {nodes v
      encs} {decs : dstate -> res (list W * dstate)} {vs a b ks},
    map wt_expr ks = a ++ b ->
    (forall ks1, map wt_expr ks1 = a -> reads_back enc1 dec1 unl nodes v ks1) ->
    (forall ks2, map wt_expr ks2 = b -> reads_back encs decs (map unl) (flat_map nodes) vs ks2) ->
    reads_back (fun kb => let '(b1, kb1) := enc1 kb in let '(b2, kb2) := encs kb1 in (b1 ++ b2, kb2))
               (fun st => do '(x, st1) <- dec1 st; do '(xs, st2) <- decs st1; Ok (x :: xs, st2))
               (map unl) (flat_map nodes) (v :: vs) ks.
  Proof.
    intros V W enc1 dec1 unl nodes v encs decs vs a b ks MK R1 Rs kb t t' kb' K.
    apply map_eq_app in MK. destruct MK as [ks1 [ks2 [-> [M1 M2]]]].
    apply KD_app in K. destruct K as [t1 [kb1 [K1 K2]]].
    destruct (R1 ks1 M1 kb t t1 kb1 K1) as [v' [b1 [E1 [D1 [V1 S1]]]]].
    destruct (Rs ks2 M2 kb1 t1 t' kb' K2) as [vs' [b2 [E2 [D2 [V2 S2]]]]].
    exists (v' :: vs'), (b1 ++ b2). split; [rewrite E1, E2; reflexivity|]. split; [|split].
    - intros rest. rewrite <- app_assoc, D1. cbn [bind]. rewrite D2. reflexivity.
    - cbn [map]. rewrite V1, V2. reflexivity.
    - cbn [flat_map]. rewrite S1, S2. reflexivity.
  Qed.

  Lemma reads_back_ext : forall {V W} enc (dec dec' : dstate -> res (W * dstate)) (unl : W -> V) nodes v ks,
    (forall st, dec st = dec' st) -> reads_back enc dec' unl nodes v ks -> reads_back enc dec unl nodes v ks.
  Proof.
    intros V W enc dec dec' unl nodes v ks E R kb t t' kb' K.
    destruct (R kb t t' kb' K) as [v' [b [E1 [D R']]]]. exists v', b. split; [exact E1|]. split; [|exact R'].
    intros rest. rewrite E. apply D.
  Qed.

  Lemma sval_rt : forall f v, sval_typed f v = true ->
    forall ks, map wt_expr ks = sval_kids v ->
    reads_back (enc_sval sw f v) (dec_sfield rec sw f) (sval_map wt_expr) sval_kids v ks.
  Proof.
    intros f v TY ks MK.
    destruct f, v as [n|s|c]; cbn [sval_typed] in TY; try discriminate;
      cbn [sval_kids] in MK.
    1-4: eapply reads_back_leaf with (v' := VN n); [exact MK | intros kb; reflexivity | | reflexivity | reflexivity];
         intros rest t; cbn [dec_sfield fst snd]; rewrite rd_wr_uint by (apply N.ltb_lt in TY; exact TY);
         reflexivity.
    - (* string *)
      apply andb_prop in TY. destruct TY as [_ L]. apply N.ltb_lt in L.
      eapply reads_back_leaf with (v' := VS s); [exact MK | intros kb; reflexivity | | reflexivity | reflexivity].
      intros rest t. cbn [dec_sfield fst snd]. rewrite <- app_assoc.
      rewrite rd_wr_uint by (rewrite <- W64_pow; unfold ALLOC_LIMIT, W64 in *; lia). cbn [bind].
      replace (ALLOC_LIMIT <=? N.of_nat (length s)) with false by (symmetry; apply N.leb_gt; exact L).
      rewrite take_n_app. reflexivity.
    - (* node *)
      intros kb t t' kb' K.
      destruct ks as [|k [|? ?]]; try discriminate. injection MK as <-.
      apply KD_cons_inv in K. destruct K as [b [kb0 [t1 [-> [R S]]]]].
      apply KD_nil_inv in R. destruct R as [-> ->].
      exists (VE k). exists b. split; [reflexivity|]. split; [|split; [cbn; reflexivity | reflexivity]].
      intros rest. cbn [dec_sfield]. rewrite S by exact TY. reflexivity.
  Qed.

  Lemma row_rt : forall fs vs, row_typed fs vs = true ->
    forall ks, map wt_expr ks = row_kids vs ->
    reads_back (enc_row sw fs vs) (dec_svals rec sw fs) (map (sval_map wt_expr)) row_kids vs ks.
  Proof.
    induction fs as [|f fs IH]; intros [|v vs] TY ks MK; cbn [row_typed] in TY; try discriminate TY.
    - exact (reads_back_nil (sval_map wt_expr) sval_kids ks MK).
    - apply andb_prop in TY. destruct TY as [TY1 TY2].
      exact (reads_back_cons MK (sval_rt f v TY1) (IH vs TY2)).
  Qed.

  Lemma rows_rt : forall elem rows, forallb (row_typed elem) rows = true ->
    forall ks, map wt_expr ks = flat_map row_kids rows ->
    forall k, (length rows <= k)%nat ->
    reads_back (enc_rows sw elem rows) (dec_rows rec sw k (N.of_nat (length rows)) elem)
               (map (map (sval_map wt_expr))) (flat_map row_kids) rows ks.
  Proof.
    intros elem. induction rows as [|r rows IH]; intros TY ks MK k LK.
    - apply (reads_back_ext _ _ (fun st => Ok ([], st))); [intros st; destruct k; reflexivity|].
      exact (reads_back_nil (map (sval_map wt_expr)) row_kids ks MK).
    - cbn [forallb] in TY. apply andb_prop in TY. destruct TY as [TY1 TY2].
      destruct k as [|k]; [destruct (Nat.nle_succ_0 _ LK)|].
      eapply reads_back_ext; [intros st; cbn [length]; rewrite Nat2N.inj_succ; apply dec_rows_succ|].
      exact (reads_back_cons MK
               (row_rt elem r TY1) (fun ks2 M2 => IH TY2 ks2 M2 k (le_S_n _ _ LK))).
  Qed.

  Lemma fval_rt : forall f v, fval_typed f v = true ->
    forall ks, map wt_expr ks = fval_kids v ->
    forall k, rows_le k v ->
    reads_back (enc_fval sw f v) (dec_field rec sw k f) (fval_map wt_expr) fval_kids v ks.
  Proof.
    intros f v TY ks MK k LK kb t t' kb' K.
    destruct f as [s|esz elem], v as [x|rows]; cbn [fval_typed] in TY; try discriminate.
    - cbn [fval_kids] in MK.
      destruct (sval_rt s x TY ks MK kb t t' kb' K) as [x' [b [E [D [V S]]]]].
      exists (FV x'), b. split; [exact E|]. split; [|split].
      + intros rest. cbn [dec_field]. rewrite D. reflexivity.
      + cbn. rewrite V. reflexivity.
      + exact S.
    - apply andb_prop in TY. destruct TY as [TY L2]. apply andb_prop in TY. destruct TY as [TY L1].
      apply N.ltb_lt in L1. apply N.ltb_lt in L2.
      cbn [fval_kids] in MK.
      destruct (rows_rt elem rows TY ks MK k LK kb t t' kb' K) as [rows' [b [E [D [V S]]]]].
      exists (FL rows'). eexists. split; [cbn [enc_fval]; rewrite E; reflexivity|]. split; [|split].
      + intros rest. cbn [dec_field fst snd]. rewrite <- app_assoc.
        rewrite rd_wr_uint by (rewrite <- W64_pow; exact L2). cbn [bind].
        replace (ALLOC_LIMIT <=? N.of_nat (length rows) * esz) with false by (symmetry; apply N.leb_gt; exact L1).
        rewrite D. reflexivity.
      + cbn. rewrite V. reflexivity.
      + exact S.
  Qed.

  Lemma fvals_rt : forall fs vs, fvals_typed fs vs = true ->
    forall ks, map wt_expr ks = vals_kids vs ->
    forall k, Forall (rows_le k) vs ->
    reads_back (enc_fvals sw fs vs) (dec_fields rec sw k fs) (map (fval_map wt_expr)) vals_kids vs ks.
  Proof.
    induction fs as [|f fs IH]; intros [|v vs] TY ks MK k LK; cbn [fvals_typed] in TY; try discriminate TY.
    - exact (reads_back_nil (fval_map wt_expr) fval_kids ks MK).
    - apply andb_prop in TY. destruct TY as [TY1 TY2].
      exact (reads_back_cons MK
               (fun ks1 M1 => fval_rt f v TY1 ks1 M1 k (Forall_inv LK))
               (fun ks2 M2 => IH vs TY2 ks2 M2 k (Forall_inv_tail LK))).
  Qed.

End Fields.

(* every id the encoder has written is bound, in the decoder's table, to THE node of that id *)
Definition inv (G : N -> option wtree) (seen : list N) (tbl : table) : Prop :=
  forall a, memN a seen = true -> lookup a tbl = G a.

Definition node_goal (sw : bool) (G : N -> option wtree) (w : wtree) : Prop :=
  (forall s, In s (subtrees w) -> node_ok s /\ G (wt_addr s) = Some s) ->
  forall seen tbl, inv G seen tbl ->
  forall bytes seen', enc_node sw w seen = (bytes, seen') ->
  exists tbl', inv G seen' tbl' /\
    forall fuel rest T, (wfuel w <= fuel)%nat -> derives (type_code (wt_expr w)) T = true ->
      dec_node fuel sw T (bytes ++ rest, tbl) = Ok (w, (rest, tbl')).

Lemma kids_rt : forall sw G ks, Forall (node_goal sw G) ks ->
  (forall k s, In k ks -> In s (subtrees k) -> node_ok s /\ G (wt_addr s) = Some s) ->
  forall seen tbl, inv G seen tbl ->
  forall kb seen', enc_forest sw ks seen = (kb, seen') ->
  exists tbl', inv G seen' tbl' /\
    forall f, (max_wfuel ks <= f)%nat -> KD (dec_node f sw) ks kb tbl tbl' [].
Proof.
  intros sw G ks F. induction F as [|k ks Pk F IH]; intros SUB seen tbl I kb seen' E.
  - cbn in E. injection E as <- <-. exists tbl. split; [exact I|]. intros; constructor.
  - cbn [enc_forest] in E. destruct (enc_node sw k seen) as [b s1] eqn:E1.
    destruct (enc_forest sw ks s1) as [bs s2] eqn:E2. injection E as <- <-.
    destruct (Pk (fun s Hs => SUB k s (or_introl eq_refl) Hs) seen tbl I b s1 E1) as [t1 [I1 D1]].
    destruct (IH (fun k' s Hk Hs => SUB k' s (or_intror Hk) Hs) s1 t1 I1 bs s2 E2) as [t2 [I2 D2]].
    exists t2. split; [exact I2|]. intros f LF. cbn [max_wfuel] in LF.
    econstructor.
    + intros rest T DT. apply D1; [lia | exact DT].
    + apply D2. lia.
Qed.

Theorem enc_dec_node : forall sw G w, node_goal sw G w.
Proof.
  intros sw G. apply wtree_ind2. intros a e ks IH SUB seen tbl I bytes seen' E.
  destruct (SUB (WT a e ks) (subtrees_self _)) as [[A [WK NS]] GA]. cbn [wt_addr wt_kids wt_expr] in *.
  rewrite enc_node_eq in E. destruct (memN a seen) eqn:M.
  - (* a back-reference *)
    injection E as <- <-. exists tbl. split; [exact I|].
    intros fuel rest T LF DT. rewrite wfuel_eq in LF. destruct fuel as [|f]; [lia|].
    cbn [dec_node fst snd]. rewrite <- app_assoc. rewrite rd_wr_uint by (rewrite <- W64_pow; exact A).
    cbn [bind app]. rewrite rd_byte. cbn [bind]. cbn [N.leb N.eqb].
    replace (2 <=? 0) with false by reflexivity. replace (0 =? 0) with true by reflexivity.
    rewrite (I a M), GA. cbn [wt_expr] in *. rewrite DT. reflexivity.
  - (* first occurrence *)
    destruct (enc_forest sw ks seen) as [kb sk] eqn:EK. injection E as <- <-.
    destruct (kids_rt sw G ks IH (fun k s Hk Hs => SUB s (subtrees_kid a e ks k s Hk Hs)) seen tbl I kb sk EK)
      as [tk [IK DK]].
    destruct (node_schema e NS) as [sch [SK [TY TC]]].
    exists ((a, WT a e ks) :: tk). split.
    + intros a' M'. rewrite memN_cons in M'. cbn [lookup].
      destruct (N.eqb_spec a a') as [<-|NE].
      * symmetry. exact GA.
      * replace (a' =? a) with false in M' by (symmetry; apply N.eqb_neq; congruence).
        apply IK. exact M'.
    + intros fuel rest T LF DT. rewrite wfuel_eq in LF. destruct fuel as [|f]; [lia|].
      destruct (fvals_rt (dec_node f sw) sw sch (vals_of e) TY ks WK f
                         (rows_le_sum (vals_of e) f ltac:(unfold nrows in LF; lia)) kb tbl tk [] (DK f ltac:(lia)))
        as [vs' [pb [EP [DP [VM VK]]]]].
      cbn [dec_node fst snd]. rewrite <- app_assoc. rewrite rd_wr_uint by (rewrite <- W64_pow; exact A).
      cbn [bind app]. rewrite rd_byte. cbn [bind].
      replace (2 <=? 1) with false by reflexivity. replace (1 =? 0) with false by reflexivity.
      rewrite rd_byte. cbn [bind].
      replace (TC_Count <=? type_code e) with false by (symmetry; apply N.leb_gt; exact TC).
      rewrite SK. unfold enc_payload. rewrite SK, EP. cbn [fst].
      rewrite DP. cbn [bind]. rewrite VM, (node_build e NS). cbn [bind]. rewrite VK.
      cbn [wt_expr] in DT. rewrite DT. reflexivity.
Qed.

Definition flag_of (sw : bool) : N := if sw then 0 else 1.
Lemma rd_header_encode : forall sw ver rest,
  fst ver < 65536 -> snd ver < 65536 ->
  rd_header ([flag_of sw] ++ wr_uint sw 2 (fst ver) ++ wr_uint sw 2 (snd ver) ++ rest)
  = Ok (sw, fst ver, snd ver, rest).
Proof.
  intros sw ver rest H1 H2. unfold rd_header. cbn [app].
  assert (S : negb (flag_of sw =? 1) = sw) by (destruct sw; reflexivity).
  rewrite S. rewrite rd_wr_uint by exact H1. rewrite rd_wr_uint by exact H2. reflexivity.
Qed.

Theorem decode_encode_lab : forall sw ver G w,
  fst ver < 65536 -> snd ver < 65536 ->
  (forall s, In s (subtrees w) -> node_ok s) -> dag G w ->
  decode_lab ver (encode sw ver w) = Ok w.
Proof.
  intros sw ver G w V1 V2 NO DG. unfold decode_lab, encode.
  destruct (enc_node sw w []) as [bytes seen'] eqn:E. cbn [fst].
  fold (flag_of sw).
  rewrite rd_header_encode by assumption. cbn [bind].
  rewrite !N.eqb_refl. cbn [andb negb].
  destruct (enc_dec_node sw G w (fun s Hs => conj (NO s Hs) (DG s Hs)) [] [] ltac:(intros a M; discriminate) bytes seen' E)
    as [tbl' [_ D]].
  specialize (D (wfuel w) [] TBasic (le_n _) eq_refl). rewrite app_nil_r in D.
  set (bs := [flag_of sw] ++ wr_uint sw 2 (fst ver) ++ wr_uint sw 2 (snd ver) ++ bytes).
  assert (L : (length bytes < S (length bs))%nat).
  { unfold bs. rewrite !app_length. lia. }
  rewrite (dec_node_fuel_indep sw (wfuel w) (S (length bs)) TBasic (bytes, []) _ D); [reflexivity|].
  apply fine_not_fuel, (dec_node_total sw (S (length bs)) TBasic bytes [] L).
Qed.

Corollary decode_encode : forall sw ver G w,
  fst ver < 65536 -> snd ver < 65536 ->
  (forall s, In s (subtrees w) -> node_ok s) -> dag G w ->
  decode ver (encode sw ver w) = Ok (wt_expr w).
Proof. intros. unfold decode. erewrite decode_encode_lab by eassumption. reflexivity. Qed.

(* in a DAG labelling, positions with the same id hold the same (one) node *)
Lemma dag_inj : forall G w, dag G w ->
  forall s1 s2, In s1 (subtrees w) -> In s2 (subtrees w) -> wt_addr s1 = wt_addr s2 -> s1 = s2.
Proof.
  intros G w DG s1 s2 H1 H2 EA. pose proof (DG s1 H1) as G1. rewrite EA, (DG s2 H2) in G1.
  injection G1 as ->. reflexivity.
Qed.

(* sharing: the decoder returns the labelled DAG itself -- the same ids at the same positions *)
Theorem sharing_restored : forall sw ver G w,
  fst ver < 65536 -> snd ver < 65536 ->
  (forall s, In s (subtrees w) -> node_ok s) -> dag G w ->
  exists w', decode_lab ver (encode sw ver w) = Ok w' /\
    map wt_addr (subtrees w') = map wt_addr (subtrees w) /\
    wt_expr w' = wt_expr w /\
    forall s1 s2, In s1 (subtrees w') -> In s2 (subtrees w') -> wt_addr s1 = wt_addr s2 -> s1 = s2.
Proof.
  intros sw ver G w V1 V2 NO DG. exists w. split; [eapply decode_encode_lab; eassumption|].
  split; [reflexivity|]. split; [reflexivity | exact (dag_inj G w DG)].
Qed.
