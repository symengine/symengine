(* C20 -- the decoder is total: on every byte list it ends with a value or an exception (never
   out of fuel with fuel > length of the input, never an out-of-range access), every node consumes
   input, and the result does not depend on the fuel. *)
From SE Require Import Codec.CodecModel Codec.CodecBytes.
From Coq Require Import Lia.
Local Open Scope res_scope.

Definition fine {A} (r : res A) : Prop :=
  match r with ErrFuel | ErrOOB _ _ => False | _ => True end.

Lemma fine_bind : forall {A B} (r : res A) (k : A -> res B),
  fine r -> (forall a, r = Ok a -> fine (k a)) -> fine (bind r k).
Proof. intros A B r k H K. destruct r; cbn in *; auto. Qed.

Lemma fine_cases : forall {A} (r : res A), fine r -> (exists a, r = Ok a) \/ (exists c, r = ErrExn c).
Proof. intros A [a| | |c] F; [left; exists a; reflexivity | destruct F | destruct F | right; exists c; reflexivity]. Qed.

Lemma fine_not_fuel : forall {A} (r : res A), fine r -> r <> ErrFuel.
Proof. intros A r F E. rewrite E in F. exact F. Qed.

Lemma bind_ok : forall {A B} (r : res A) (k : A -> res B) b,
  bind r k = Ok b -> exists a, r = Ok a /\ k a = Ok b.
Proof. intros A B r k b H. destruct r; cbn in H; try discriminate. eauto. Qed.

(* what holds of the value of a result, if it is one; [sound]: and the result is a value or an
   exception.  Both pass through [bind], so a decoder written with [do] is treated one action at a
   time. *)
Definition post {A} (Q : A -> Prop) (r : res A) : Prop := forall a, r = Ok a -> Q a.
Definition sound {A} (Q : A -> Prop) (r : res A) : Prop := fine r /\ post Q r.

Lemma post_bind : forall {A B} (Q : A -> Prop) (R : B -> Prop) (r : res A) (k : A -> res B),
  post Q r -> (forall a, Q a -> post R (k a)) -> post R (bind r k).
Proof.
  intros A B Q R r k P K b H. apply bind_ok in H. destruct H as [a [E H]]. exact (K a (P a E) b H).
Qed.
Lemma post_then : forall {A B} (R : B -> Prop) (r : res A) (k : A -> res B),
  (forall a, post R (k a)) -> post R (bind r k).
Proof. intros A B R r k K. apply (post_bind (fun _ => True)); [exact (fun _ _ => I) | intros a _; apply K]. Qed.
Lemma post_ok : forall {A} (Q : A -> Prop) a, Q a -> post Q (Ok a).
Proof. intros A Q a H a' E. injection E as <-. exact H. Qed.
Lemma post_exn : forall {A} (Q : A -> Prop) c, post Q (ErrExn c).
Proof. intros A Q c a E. discriminate E. Qed.

Lemma sound_bind : forall {A B} (Q : A -> Prop) (R : B -> Prop) (r : res A) (k : A -> res B),
  sound Q r -> (forall a, Q a -> sound R (k a)) -> sound R (bind r k).
Proof.
  intros A B Q R r k [F P] K. split.
  - apply fine_bind; [exact F|]. intros a E. apply K, P, E.
  - apply (post_bind Q); [exact P|]. intros a H. apply K, H.
Qed.
Lemma sound_ok : forall {A} (Q : A -> Prop) a, Q a -> sound Q (Ok a).
Proof. intros A Q a H. split; [exact I | apply post_ok, H]. Qed.
Lemma sound_exn : forall {A} (Q : A -> Prop) c, sound Q (ErrExn c).
Proof. intros A Q c. split; [exact I | apply post_exn]. Qed.

(* a value or an exception, and a value comes with fewer than m unread bytes: progress is
   [leaves (length bs)] on input bs, "reads no further than the end" is [leaves (S (length bs))] *)
Definition leaves {A} (m : nat) (r : res (A * dstate)) : Prop :=
  sound (fun x => (length (fst (snd x)) < m)%nat) r.

Lemma rd_uint_sound : forall sw w bs,
  sound (fun x => (length (snd x) + w = length bs)%nat) (rd_uint sw w bs).
Proof.
  intros sw w bs. unfold rd_uint. destruct (take w bs) as [[h t]|] eqn:E; [|apply sound_exn].
  apply take_some in E. destruct E as [-> L]. apply sound_ok. cbn [snd]. rewrite app_length. lia.
Qed.

Lemma rd_uint_fine : forall sw w bs, fine (rd_uint sw w bs).
Proof. intros. apply rd_uint_sound. Qed.

(* a field list in which every sequence has a non-empty element schema *)
Definition field_wf (f : field) : Prop :=
  match f with FOne _ => True | FSeq _ elem => elem <> [] end.

Lemma schema_wf : forall k sch, schema_k k = Some sch -> Forall field_wf sch.
Proof.
  intros k sch H. destruct k; cbn in H; try discriminate; injection H as <-;
    repeat constructor; cbn; discriminate.
Qed.

Section Total.
  Variable rec : tclass -> dstate -> res (wtree * dstate).
  Variable sw : bool.
  Variable n : nat.
  (* the recursive call makes progress on inputs shorter than n *)
  Hypothesis rec_ok : forall T bs tbl, (length bs < n)%nat -> leaves (length bs) (rec T (bs, tbl)).

  Lemma sfield_total : forall f bs tbl, (length bs < n)%nat ->
    leaves (length bs) (dec_sfield rec sw f (bs, tbl)).
  Proof.
    intros f bs tbl L.
    assert (U : forall w (k : N -> sval wtree), (0 < w)%nat ->
      leaves (length bs) (do '(x, b) <- rd_uint sw w bs; Ok (k x, (b, tbl)))).
    { intros w k W. eapply sound_bind; [apply rd_uint_sound|]. intros [x b] E.
      apply sound_ok. cbn [fst snd] in *. lia. }
    destruct f; cbn [dec_sfield fst snd].
    1-4: apply U; lia.
    - eapply sound_bind; [apply rd_uint_sound|]. intros [x t] E. cbn [snd] in E.
      destruct (ALLOC_LIMIT <=? x)%N; [apply sound_exn|].
      destruct (take_n x t) as [[s t']|] eqn:TK; [|apply sound_exn].
      apply take_n_some in TK. destruct TK as [-> _]. rewrite app_length in E.
      apply sound_ok. cbn [fst snd]. lia.
    - eapply sound_bind; [apply rec_ok, L|]. intros [w st'] E. apply sound_ok. exact E.
  Qed.

  (* a row reads no further than the end, and a non-empty row makes progress *)
  Lemma svals_total : forall fs bs tbl, (length bs < n)%nat ->
    leaves (match fs with [] => S (length bs) | _ => length bs end) (dec_svals rec sw fs (bs, tbl)).
  Proof.
    induction fs as [|f r IH]; intros bs tbl L; cbn [dec_svals].
    - apply sound_ok. cbn [fst snd]. lia.
    - eapply sound_bind; [apply sfield_total, L|]. intros [v [b1 t1]] L1. cbn [fst snd] in L1.
      eapply sound_bind; [apply IH; lia|]. intros [vs [b2 t2]] L2.
      apply sound_ok. cbn [fst snd] in *. destruct r; lia.
  Qed.

  Lemma rows_total : forall elem, elem <> [] -> forall k cnt bs tbl,
    (length bs < n)%nat -> (length bs < k)%nat ->
    leaves (S (length bs)) (dec_rows rec sw k cnt elem (bs, tbl)).
  Proof.
    intros [|f0 elem] NE; [congruence|].
    induction k as [|k IH]; intros cnt bs tbl L K; [lia|].
    cbn [dec_rows]. destruct (cnt =? 0)%N; [apply sound_ok; cbn [fst snd]; lia|].
    eapply sound_bind; [apply svals_total, L|]. intros [row [b1 t1]] L1. cbn [fst snd] in L1.
    eapply sound_bind; [apply IH; lia|]. intros [rows [b2 t2]] L2.
    apply sound_ok. cbn [fst snd] in *. lia.
  Qed.

  Lemma field_total : forall k f bs tbl, field_wf f ->
    (length bs < n)%nat -> (length bs < k)%nat ->
    leaves (length bs) (dec_field rec sw k f (bs, tbl)).
  Proof.
    intros k f bs tbl W L K. destruct f as [s|esz elem]; cbn [dec_field fst snd].
    - eapply sound_bind; [apply sfield_total, L|]. intros [v st1] L1. apply sound_ok. exact L1.
    - eapply sound_bind; [apply rd_uint_sound|]. intros [x t] E. cbn [snd] in E.
      destruct (ALLOC_LIMIT <=? x * esz)%N; [apply sound_exn|].
      eapply sound_bind; [apply (rows_total elem W); lia|]. intros [rows [b2 t2]] L2.
      apply sound_ok. cbn [fst snd] in *. lia.
  Qed.

  Lemma fields_total : forall k fs, Forall field_wf fs -> forall bs tbl,
    (length bs < n)%nat -> (length bs < k)%nat ->
    leaves (S (length bs)) (dec_fields rec sw k fs (bs, tbl)).
  Proof using rec_ok.
    intros k fs W. induction W as [|f r Wf Wr IH]; intros bs tbl L K; cbn [dec_fields].
    - apply sound_ok. cbn [fst snd]. lia.
    - eapply sound_bind; [apply (field_total k f bs tbl Wf L K)|]. intros [v [b1 t1]] L1. cbn [fst snd] in L1.
      eapply sound_bind; [apply IH; lia|]. intros [vs [b2 t2]] L2.
      apply sound_ok. cbn [fst snd] in *. lia.
  Qed.
End Total.

(* no constructor of the model's [build] produces ErrFuel / ErrOOB *)
Lemma as_num_fine : forall e, fine (as_num e).
Proof. destruct e; exact I. Qed.
Lemma rows1_fine : forall rows, fine (rows1 rows).
Proof.
  induction rows as [|r rr IH]; [exact I|]. cbn [rows1].
  destruct r as [|[n|s|a] [|? ?]]; try exact I.
  apply fine_bind; [exact IH | intros; exact I].
Qed.
Lemma rows2_fine : forall rows, fine (rows2 rows).
Proof.
  induction rows as [|r rr IH]; [exact I|]. cbn [rows2].
  destruct r as [|[n|s|a] [|[n'|s'|b] [|? ?]]]; try exact I.
  apply fine_bind; [exact IH | intros; exact I].
Qed.
Lemma rows_num_fine : forall rows, fine (rows_num rows).
Proof.
  induction rows as [|[a b] rr IH]; [exact I|]. cbn [rows_num].
  apply fine_bind; [apply as_num_fine|]. intros. apply fine_bind; [exact IH | intros; exact I].
Qed.
Lemma parse_int_fine : forall s, fine (parse_int s).
Proof.
  intros s. unfold parse_int. destruct s as [|c r]; [exact I|].
  destruct (negb ((c =? 45)%N || is_digit c)); [exact I|].
  destruct (negb (forallb is_digit r)); [exact I|].
  destruct (c =? 45)%N; exact I.
Qed.
Lemma cplx_build_fine : forall a b, fine (cplx_build a b).
Proof.
  intros. unfold cplx_build. destruct (rat_parts a) as [[? ?]|]; [|exact I].
  destruct (rat_parts b) as [[? ?]|]; [|exact I]. destruct (_ =? _)%Z; exact I.
Qed.
Lemma cd_build_fine : forall a b, fine (cd_build a b).
Proof.
  intros. unfold cd_build. destruct a; try exact I. destruct b; exact I.
Qed.

Create HintDb fine discriminated.
#[local] Hint Resolve as_num_fine rows1_fine rows2_fine rows_num_fine parse_int_fine cplx_build_fine
  cd_build_fine : fine.

(* [build] is a table of cases over the class and the shape of the values; every entry is a
   constant or a chain of the helpers above *)
Lemma build_is_fine : forall tc vals, fine (build tc vals).
Proof.
  intros tc vals. unfold build.
  destruct (kind_of tc);
    repeat match goal with
           | |- fine (if ?c then _ else _) => destruct c
           | |- fine (match ?l with _ => _ end) => destruct l
           | |- fine (bind _ _) => apply fine_bind; [solve [auto with fine] | intros ? _]
           end; exact I.
Qed.

(* RCPBasicAwareInputArchive::load_rcp_basic terminates within fuel = input length + 1, never
   reads out of range, and consumes input *)
Theorem dec_node_total : forall sw f T bs tbl, (length bs < f)%nat ->
  leaves (length bs) (dec_node f sw T (bs, tbl)).
Proof.
  intros sw. induction f as [|f IH]; intros T bs tbl L; [lia|].
  cbn [dec_node fst snd].
  eapply sound_bind; [apply rd_uint_sound|]. intros [addr b1] E1. cbn [snd] in E1.
  eapply sound_bind; [apply rd_uint_sound|]. intros [fs b2] E2. cbn [snd] in E2.
  destruct (2 <=? fs)%N; [apply sound_exn|].
  destruct (fs =? 0)%N.
  - destruct (lookup addr tbl) as [w|]; [|apply sound_exn].
    destruct (derives _ T); [|apply sound_exn]. apply sound_ok. cbn [fst snd]. lia.
  - eapply sound_bind; [apply rd_uint_sound|]. intros [tc b3] E3. cbn [snd] in E3.
    destruct (TC_Count <=? tc)%N; [apply sound_exn|].
    destruct (schema_k (kind_of tc)) as [sch|] eqn:SK; [|apply sound_exn].
    eapply sound_bind; [apply (fields_total (dec_node f sw) sw f IH f sch (schema_wf _ _ SK)); lia|].
    intros [vals [b4 t4]] L4. cbn [fst snd] in L4.
    eapply sound_bind; [split; [apply build_is_fine | exact (fun e _ => I)]|]. intros e _.
    destruct (derives tc T); [|apply sound_exn]. apply sound_ok. cbn [fst snd]. lia.
Qed.

Lemma rd_header_sound : forall bs, sound (fun x => (length (snd x) < length bs)%nat) (rd_header bs).
Proof.
  intros [|flag r]; [apply sound_exn|]. cbn [rd_header]. set (sw := negb (flag =? 1)%N).
  destruct (rd_uint_sound sw 2 r) as [_ P1].
  destruct (rd_uint sw 2 r) as [[ma r1]| | |]; try apply sound_exn.
  destruct (rd_uint_sound sw 2 r1) as [_ P2].
  destruct (rd_uint sw 2 r1) as [[mi r2]| | |]; try apply sound_exn.
  apply sound_ok. specialize (P1 _ eq_refl). specialize (P2 _ eq_refl). cbn [snd length] in *. lia.
Qed.

(* Basic::loads on any byte list: a labelled tree or an exception *)
Theorem decode_lab_total : forall ver bs, fine (decode_lab ver bs).
Proof.
  intros ver bs. enough (S : sound (fun _ => True) (decode_lab ver bs)) by apply S.
  unfold decode_lab. eapply sound_bind; [apply rd_header_sound|]. intros [[[sw ma] mi] r] L. cbn [snd] in L.
  destruct (negb _); [apply sound_exn|].
  eapply sound_bind; [apply dec_node_total; lia|]. intros [w st] _. apply sound_ok. exact I.
Qed.

Theorem decode_total : forall ver bs,
  (exists e, decode ver bs = Ok e) \/ (exists c, decode ver bs = ErrExn c).
Proof.
  intros ver bs. apply fine_cases. unfold decode.
  apply fine_bind; [apply decode_lab_total | intros w _; exact I].
Qed.

(* r2 is r1, unless r1 ran out of fuel: the third property of results that passes through [bind] *)
Definition stable {A} (r1 r2 : res A) : Prop := r1 <> ErrFuel -> r2 = r1.

Lemma stable_refl : forall {A} (r : res A), stable r r.
Proof. intros A r _. reflexivity. Qed.

Lemma stable_bind : forall {A B} (r1 r2 : res A) (k1 k2 : A -> res B),
  stable r1 r2 -> (forall a, r1 = Ok a -> stable (k1 a) (k2 a)) -> stable (bind r1 k1) (bind r2 k2).
Proof.
  intros A B r1 r2 k1 k2 R K NF.
  assert (N1 : r1 <> ErrFuel) by (intro X; rewrite X in NF; apply NF; reflexivity).
  rewrite (R N1). destruct r1; cbn in *; try reflexivity. apply K; [reflexivity | exact NF].
Qed.

Section Mono.
  Variables rec1 rec2 : tclass -> dstate -> res (wtree * dstate).
  Variable sw : bool.
  Hypothesis rec_le : forall T st, stable (rec1 T st) (rec2 T st).

  Lemma sfield_mono : forall f st, stable (dec_sfield rec1 sw f st) (dec_sfield rec2 sw f st).
  Proof.
    intros f st. destruct f; try apply stable_refl. cbn [dec_sfield].
    apply stable_bind; [apply rec_le | intros; apply stable_refl].
  Qed.

  Lemma svals_mono : forall fs st, stable (dec_svals rec1 sw fs st) (dec_svals rec2 sw fs st).
  Proof.
    induction fs as [|f r IH]; intros st; [apply stable_refl|]. cbn [dec_svals].
    apply stable_bind; [apply sfield_mono|]. intros [v st1] _.
    apply stable_bind; [apply IH | intros; apply stable_refl].
  Qed.

  Lemma rows_mono : forall elem k1 k2 cnt st, (k1 <= k2)%nat ->
    stable (dec_rows rec1 sw k1 cnt elem st) (dec_rows rec2 sw k2 cnt elem st).
  Proof.
    intros elem. induction k1 as [|k1 IH]; intros k2 cnt st LE.
    - intros NF. cbn [dec_rows] in *. destruct (cnt =? 0)%N eqn:C; [|congruence].
      destruct k2; cbn [dec_rows]; rewrite C; reflexivity.
    - destruct k2 as [|k2]; [lia|]. cbn [dec_rows]. destruct (cnt =? 0)%N; [apply stable_refl|].
      apply stable_bind; [apply svals_mono|]. intros [row st1] _.
      apply stable_bind; [apply IH; lia | intros; apply stable_refl].
  Qed.

  Lemma field_mono : forall k1 k2 f st, (k1 <= k2)%nat ->
    stable (dec_field rec1 sw k1 f st) (dec_field rec2 sw k2 f st).
  Proof.
    intros k1 k2 f st LE. destruct f as [s|esz elem]; cbn [dec_field].
    - apply stable_bind; [apply sfield_mono | intros; apply stable_refl].
    - apply stable_bind; [apply stable_refl|]. intros [x bs] _.
      destruct (ALLOC_LIMIT <=? x * esz)%N; [apply stable_refl|].
      apply stable_bind; [apply rows_mono, LE | intros; apply stable_refl].
  Qed.

  Lemma fields_mono : forall k1 k2 fs st, (k1 <= k2)%nat ->
    stable (dec_fields rec1 sw k1 fs st) (dec_fields rec2 sw k2 fs st).
  Proof.
    intros k1 k2 fs. induction fs as [|f r IH]; intros st LE; [apply stable_refl|]. cbn [dec_fields].
    apply stable_bind; [apply field_mono, LE|]. intros [v st1] _.
    apply stable_bind; [apply IH, LE | intros; apply stable_refl].
  Qed.
End Mono.

(* more fuel does not change a result that is not "out of fuel" *)
Theorem dec_node_mono : forall sw f1 f2 T st, (f1 <= f2)%nat ->
  stable (dec_node f1 sw T st) (dec_node f2 sw T st).
Proof.
  intros sw. induction f1 as [|f1 IH]; intros f2 T st LE; [intros NF; cbn in NF; congruence|].
  destruct f2 as [|f2]; [lia|]. cbn [dec_node].
  apply stable_bind; [apply stable_refl|]. intros [addr bs1] _.
  apply stable_bind; [apply stable_refl|]. intros [fs bs2] _.
  destruct (2 <=? fs)%N; [apply stable_refl|]. destruct (fs =? 0)%N; [apply stable_refl|].
  apply stable_bind; [apply stable_refl|]. intros [tc bs3] _.
  destruct (TC_Count <=? tc)%N; [apply stable_refl|].
  destruct (schema_k (kind_of tc)) as [sch|]; [|apply stable_refl].
  apply stable_bind; [|intros; apply stable_refl].
  apply fields_mono; [|lia]. intros T' st'. apply IH. lia.
Qed.

(* hence two fuels that both suffice give the same result *)
Lemma fuel_indep : forall {A} (p : nat -> res A),
  (forall f1 f2, (f1 <= f2)%nat -> stable (p f1) (p f2)) ->
  forall f1 f2 r, p f1 = Ok r -> p f2 <> ErrFuel -> p f2 = Ok r.
Proof.
  intros A p M f1 f2 r H NF. destruct (Nat.le_ge_cases f1 f2) as [LE|GE].
  - rewrite (M f1 f2 LE); [exact H | rewrite H; discriminate].
  - rewrite <- H. symmetry. apply M; assumption.
Qed.

Corollary dec_node_fuel_indep : forall sw f1 f2 T st r,
  dec_node f1 sw T st = Ok r -> dec_node f2 sw T st <> ErrFuel -> dec_node f2 sw T st = Ok r.
Proof.
  intros sw f1 f2 T st. apply (fuel_indep (fun f => dec_node f sw T st)).
  intros g1 g2. apply dec_node_mono.
Qed.

Corollary dec_fields_fuel_indep : forall sw f1 f2 fs st r,
  dec_fields (dec_node f1 sw) sw f1 fs st = Ok r -> dec_fields (dec_node f2 sw) sw f2 fs st <> ErrFuel ->
  dec_fields (dec_node f2 sw) sw f2 fs st = Ok r.
Proof.
  intros sw f1 f2 fs st. apply (fuel_indep (fun f => dec_fields (dec_node f sw) sw f fs st)).
  intros g1 g2 LE. apply fields_mono; [|exact LE]. intros T st'. apply dec_node_mono, LE.
Qed.
