(* C19 -- the fuel [size e + 2] of [label] always reaches every wire node of e (so the first
   conjunct of [serialisable] holds for every expression). *)
From SE Require Import Codec.CodecSpec Codec.CodecNode.
From Coq Require Import Lia.

Lemma size_pos : forall e, (1 <= size e)%nat.
Proof. destruct e; cbn [size]; lia. Qed.

(* a member's summand is part of the sum *)
Lemma fold_sum_in : forall {A} (f : A -> nat) l x,
  In x l -> (f x <= fold_right (fun y acc => f y + acc) 0 l)%nat.
Proof.
  induction l as [|y l IH]; intros x H; [destruct H|].
  destruct H as [<-|H]; cbn [fold_right]; [lia|]. specialize (IH x H). lia.
Qed.

Lemma in_pairs : forall (d : list (expr * expr)) c, In c (flat_map row_kids (map row2 d)) ->
  (size c <= fold_right (fun q acc => size (fst q) + size (snd q) + acc) 0 d)%nat.
Proof.
  intros d c H. rewrite row2_kids in H. apply in_flat_map in H. destruct H as [p [I H]].
  pose proof (fold_sum_in (fun q => size (fst q) + size (snd q)) d p I) as B. cbn beta in B.
  destruct H as [<-|[<-|[]]]; lia.
Qed.

Lemma in_terms : forall (d : list (expr * number)) c, In c (flat_map row_kids (map row2n d)) ->
  (exists n, c = ENum n) \/ (size c < S (fold_right (fun q acc => size (fst q) + 1 + acc) 0 d))%nat.
Proof.
  intros d c H. rewrite row2n_eq, row2_kids in H. apply in_flat_map in H. destruct H as [q [I H]].
  apply in_map_iff in I. destruct I as [p [<- I]].
  destruct H as [<-|[<-|[]]]; [right | left; eexists; reflexivity].
  pose proof (fold_sum_in (fun q => size (fst q) + 1) d p I) as B. cbn beta in B. cbn [num_pair fst]. lia.
Qed.

(* a child on the wire is a number node or a proper subterm *)
Lemma child_cases : forall e c, In c (child_exprs e) -> (exists n, c = ENum n) \/ (size c < size e)%nat.
Proof.
  intros e c H. unfold child_exprs, vals_kids in H.
  destruct e as [n|s|s i|s|k d|k d|a b|t a|t a b|t l|s l|t a b|a l|a d|l|b|s x lo ro|t];
    cbn [vals_of flat_map fval_kids sval_kids app enum] in H; rewrite ?app_nil_r, ?row1_kids in H; cbn [size].
  - destruct n; cbn [vals_of flat_map fval_kids sval_kids app enum] in H;
      repeat (destruct H as [<-|H]; [left; eexists; reflexivity|]); destruct H.
  - destruct H.
  - destruct H.
  - destruct H.
  - destruct H as [<-|H]; [left; eexists; reflexivity | apply in_terms, H].
  - destruct H as [<-|H]; [left; eexists; reflexivity|]. apply in_pairs in H. right. lia.
  - right. destruct H as [<-|[<-|[]]]; lia.
  - right. destruct H as [<-|[]]. lia.
  - right. destruct H as [<-|[<-|[]]]; lia.
  - right. pose proof (fold_sum_in size l c H). lia.
  - right. pose proof (fold_sum_in size l c H). lia.
  - right. destruct H as [<-|[<-|[]]]; lia.
  - right. destruct H as [<-|H]; [lia|]. pose proof (fold_sum_in size l c H). lia.
  - right. destruct H as [<-|H]; [lia|]. apply in_pairs in H. lia.
  - right. apply in_pairs in H. lia.
  - destruct H.
  - right. destruct H as [<-|[<-|[]]]; lia.
  - destruct H.
Qed.

Lemma deep_num : forall n f, (2 <= f)%nat -> deep_enough f (ENum n) = true.
Proof.
  intros n f H. destruct f as [|[|f]]; try lia.
  destruct n as [z|p q|rn rd imn imd|b|re im|d|]; try reflexivity.
  cbn [deep_enough child_exprs vals_kids vals_of flat_map fval_kids sval_kids app enum forallb].
  unfold rat_number. destruct (rd =? 1)%positive, (imd =? 1)%positive; destruct f; reflexivity.
Qed.

Lemma deep_enough_size : forall n e f, (size e <= n)%nat -> (size e + 2 <= f)%nat -> deep_enough f e = true.
Proof.
  induction n as [|n IH]; intros e f S F; [pose proof (size_pos e); lia|].
  destruct f as [|f]; [lia|]. cbn [deep_enough]. apply forallb_forall. intros c I.
  destruct (child_cases e c I) as [[k ->]|L].
  - apply deep_num. pose proof (size_pos e). lia.
  - apply IH; lia.
Qed.

Theorem deep_enough_label : forall e, deep_enough (size e + 2) e = true.
Proof. intros e. apply (deep_enough_size (size e)); lia. Qed.
