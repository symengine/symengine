(* C19 -- DenseMatrix::loads (DenseMatrix::dumps A) = A: dimensions and the element vector, the
   elements sharing one id table. *)
From SE Require Import Codec.CodecSpec Codec.CodecBytes Codec.CodecTotal Codec.CodecNode Codec.CodecRoundtrip.
From Coq Require Import Lia.
Local Open Scope N_scope.
Local Open Scope res_scope.

Lemma row1_typed : forall l, forallb (row_typed [SNode TBasic]) (map row1 l) = true.
Proof. induction l as [|e l IH]; [reflexivity|]. cbn. exact IH. Qed.

Lemma fval_map_VN : forall {A B} (f : A -> B) v n, fval_map f v = FV (VN n) -> v = FV (VN n).
Proof. intros A B f [[m|?|?]|?] n H; try discriminate H. injection H as ->. reflexivity. Qed.

Theorem dense_roundtrip : forall sw ver G rows cols ws,
  fst ver < 65536 -> snd ver < 65536 ->
  rows < 4294967296 -> cols < 4294967296 -> rows * cols = N.of_nat (length ws) ->
  N.of_nat (length ws) * 8 < ALLOC_LIMIT ->
  (forall w s, In w ws -> In s (subtrees w) -> node_ok s /\ G (wt_addr s) = Some s) ->
  decode_matrix ver (encode_matrix sw ver rows cols ws) = Ok (rows, cols, ws).
Proof.
  intros sw ver G rows cols ws V1 V2 R C RC AL SUB.
  unfold decode_matrix, encode_matrix.
  destruct (enc_forest sw ws []) as [kb seen'] eqn:EK. cbn [fst].
  destruct (kids_rt sw G ws (proj2 (Forall_forall _ _) (fun w _ => enc_dec_node sw G w)) SUB [] [] ltac:(intros a M; discriminate) kb seen' EK)
    as [tk [_ DK]].
  set (f0 := Nat.max (max_wfuel ws) (length ws)).
  assert (TY : fvals_typed matrix_schema (matrix_vals rows cols (map wt_expr ws)) = true).
  { cbn [fvals_typed matrix_schema matrix_vals fval_typed sval_typed]. rewrite !map_length.
    rewrite row1_typed.
    replace (rows <? 4294967296) with true by (symmetry; apply N.ltb_lt; exact R).
    replace (cols <? 4294967296) with true by (symmetry; apply N.ltb_lt; exact C).
    replace (N.of_nat (length ws) * 8 <? ALLOC_LIMIT) with true by (symmetry; apply N.ltb_lt; exact AL).
    replace (N.of_nat (length ws) <? W64) with true by (symmetry; apply N.ltb_lt; unfold ALLOC_LIMIT, W64 in *; lia).
    reflexivity. }
  assert (MK : map wt_expr ws = vals_kids (matrix_vals rows cols (map wt_expr ws))).
  { unfold vals_kids, matrix_vals. cbn [flat_map fval_kids sval_kids app]. rewrite app_nil_r, row1_kids. reflexivity. }
  destruct (fvals_rt (dec_node f0 sw) sw matrix_schema _ TY ws MK f0
              ltac:(repeat constructor; cbn [rows_le]; rewrite !map_length; unfold f0; lia)
              kb [] tk [] (DK f0 ltac:(unfold f0; lia)))
    as [vs' [pb [EP [DP [VM VK]]]]].
  rewrite EP. cbn [fst]. fold (flag_of sw).
  rewrite rd_header_encode by assumption. cbn [bind]. rewrite !N.eqb_refl. cbn [andb negb].
  set (bs := [flag_of sw] ++ wr_uint sw 2 (fst ver) ++ wr_uint sw 2 (snd ver) ++ pb).
  specialize (DP []). rewrite app_nil_r in DP.
  assert (L : (length pb < S (length bs))%nat) by (unfold bs; rewrite !app_length; lia).
  (* the same result with the fuel of decode_matrix *)
  assert (E : dec_fields (dec_node (S (length bs)) sw) sw (S (length bs)) matrix_schema (pb, [])
              = Ok (vs', ([], tk))).
  { apply (dec_fields_fuel_indep sw f0); [exact DP|]. apply fine_not_fuel.
    apply (fields_total (dec_node (S (length bs)) sw) sw (S (length bs)) (dec_node_total sw (S (length bs)))
             (S (length bs)) matrix_schema ltac:(repeat constructor; cbn; discriminate) pb [] L L). }
  rewrite E. unfold matrix_vals in VM.
  destruct vs' as [|v1 [|v2 [|[?|rows'] [|? ?]]]]; try discriminate VM.
  injection VM as E1 E2 VM. apply fval_map_VN in E1, E2. subst v1 v2.
  unfold vals_kids in VK. cbn [flat_map fval_kids sval_kids app] in VK. rewrite app_nil_r in VK.
  assert (LR : length rows' = length ws).
  { apply (f_equal (@length _)) in VM. rewrite !map_length in VM. exact VM. }
  rewrite LR, RC, N.eqb_refl, VK. reflexivity.
Qed.
