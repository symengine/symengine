(* C20 -- what every decoded tree satisfies: the members with a static type narrower than Basic
   hold objects of that type (class_typed), and no And/Or/Xor/Union/Piecewise/Max/Min/LeviCivita
   node is smaller than its class allows (sized_ok) -- at every node of the tree. *)
From SE Require Import Codec.CodecSpec Codec.CodecBytes Codec.CodecTotal Codec.CodecNode.
From Coq Require Import Lia.
Local Open Scope N_scope.
Local Open Scope res_scope.

Lemma below_sweep : forall (P : N -> bool) (n : nat),
  forallb P (map N.of_nat (seq 0 n)) = true -> forall x, x < N.of_nat n -> P x = true.
Proof.
  intros P n H x L. rewrite forallb_forall in H. apply H.
  apply in_map_iff. exists (N.to_nat x). split; [apply N2Nat.id|]. apply in_seq. lia.
Qed.

(* the kinds with a single type code *)
Definition tc_facts (tc : N) : bool :=
  match kind_of tc with
  | KInteger => tc =? TC_Integer | KRational => tc =? TC_Rational | KComplex => tc =? TC_Complex
  | KComplexDouble => tc =? TC_ComplexDouble | KRealDouble => tc =? TC_RealDouble
  | KInfty => tc =? TC_Infty | KNaN => tc =? TC_NaN | KSymbol => tc =? TC_Symbol
  | KDummy => tc =? TC_Dummy | KConstant => tc =? TC_Constant | KMul => tc =? TC_Mul
  | KAdd => tc =? TC_Add | KPow => tc =? TC_Pow | KInterval => tc =? TC_Interval
  | KBooleanAtom => tc =? TC_BooleanAtom | KPiecewise => tc =? TC_Piecewise
  | KDerivative => tc =? TC_Derivative | KSubs => tc =? TC_Subs
  | KFunctionSymbol => tc =? TC_FunctionSymbol
  | _ => true
  end.

Lemma tc_facts_all : forall tc, tc < TC_Count -> tc_facts tc = true.
Proof. apply (below_sweep tc_facts 122). vm_compute. reflexivity. Qed.

Lemma num_derives : forall n, derives (num_type_code n) TNumber = true.
Proof. destruct n; reflexivity. Qed.

(* the containers only drop entries *)
Lemma kl_insert_in : forall {V} k (v : V) m p, In p (kl_insert k v m) -> p = (k, v) \/ In p m.
Proof.
  intros V k v. induction m as [|[k' v'] m IH]; intros p H; cbn [kl_insert] in H.
  - destruct H as [<-|[]]. left. reflexivity.
  - destruct (expr_keyless k' k).
    + destruct H as [<-|H]; [right; left; reflexivity|].
      destruct (IH p H) as [->|I]; [left; reflexivity | right; right; exact I].
    + destruct (expr_keyless k k'); [|right; exact H].
      destruct H as [<-|H]; [left; reflexivity | right; exact H].
Qed.

Lemma kl_build_in : forall {V} (rows : list (expr * V)) p, In p (kl_build rows) -> In p rows.
Proof.
  intros V rows p H. apply fold_ins_in in H; [destruct H as [[]|H]; exact H|].
  intros m [k v] x. apply kl_insert_in.
Qed.

Lemma set_build_in : forall l x, In x (set_build l) -> In x l.
Proof.
  intros l x H. unfold set_build in H. apply in_map_iff in H. destruct H as [[y u] [<- H]].
  apply kl_build_in in H. apply in_map_iff in H. destruct H as [z [E I]]. injection E as <-. exact I.
Qed.

Lemma um_build_in : forall {V} (rows : list (expr * V)) p, In p (um_build rows) -> In p rows.
Proof.
  intros V rows p H. apply fold_ins_in in H; [destruct H as [[]|H]; exact H|].
  intros m q x I. destruct (um_mem (fst q) m); [right; exact I|].
  apply in_app_or in I. destruct I as [I|[<-|[]]]; [right; exact I | left; reflexivity].
Qed.

Lemma ms_insert_in : forall k m x, In x (ms_insert k m) -> x = k \/ In x m.
Proof.
  intros k. induction m as [|k' m IH]; intros x H; cbn [ms_insert] in H.
  - destruct H as [<-|[]]. left. reflexivity.
  - destruct (expr_keyless k k').
    + destruct H as [<-|H]; [left; reflexivity | right; exact H].
    + destruct H as [<-|H]; [right; left; reflexivity|].
      destruct (IH x H) as [->|I]; [left; reflexivity | right; right; exact I].
Qed.

Lemma ms_build_in : forall l x, In x (ms_build l) -> In x l.
Proof.
  intros l x H. apply fold_ins_in in H; [destruct H as [[]|H]; exact H|].
  intros m k y. apply ms_insert_in.
Qed.

Lemma forallb_sub : forall {A} (f : A -> bool) l l',
  (forall x, In x l' -> In x l) -> forallb f l = true -> forallb f l' = true.
Proof. intros A f l l' S H. rewrite forallb_forall in *. intros x I. apply H, S, I. Qed.

Lemma rows1_in : forall rows l, rows1 rows = Ok l -> forall a, In a l -> In a (flat_map row_kids rows).
Proof. intros rows l H a I. rewrite (rows1_inv _ _ H), row1_kids. exact I. Qed.

Lemma rows1_cls : forall T rows l, rows1 rows = Ok l ->
  forallb (row_cls [SNode T]) rows = true -> forallb (is_class T) l = true.
Proof.
  intros T rows l H C. rewrite (rows1_inv _ _ H) in C. rewrite forallb_forall in *. intros a I.
  specialize (C (row1 a) (in_map row1 l a I)). cbn in C. rewrite andb_true_r in C. exact C.
Qed.

Lemma rows2_in : forall rows l, rows2 rows = Ok l -> forall p, In p l ->
  In (fst p) (flat_map row_kids rows) /\ In (snd p) (flat_map row_kids rows).
Proof.
  intros rows l H p I. rewrite (rows2_inv _ _ H), row2_kids.
  split; apply in_flat_map; exists p; cbn [In]; tauto.
Qed.

Lemma rows2_cls : forall T1 T2 rows l, rows2 rows = Ok l ->
  forallb (row_cls [SNode T1; SNode T2]) rows = true ->
  forallb (fun p => is_class T2 (snd p)) l = true.
Proof.
  intros T1 T2 rows l H C. rewrite (rows2_inv _ _ H) in C. rewrite forallb_forall in *. intros p I.
  specialize (C (row2 p) (in_map row2 l p I)). cbn in C. rewrite andb_true_r in C. apply andb_prop in C. apply C.
Qed.

(* what holds of the nodes of the rows holds of the members rows1 / rows2 return *)
Lemma rows1_all : forall (P : expr -> bool) rows l, rows1 rows = Ok l ->
  (forall c, In c (flat_map row_kids rows) -> P c = true) -> forallb P l = true.
Proof. intros P rows l H K. apply forallb_forall. intros a I. apply K, (rows1_in _ _ H a I). Qed.

Lemma rows2_all : forall (P : expr -> bool) rows l, rows2 rows = Ok l ->
  (forall c, In c (flat_map row_kids rows) -> P c = true) -> forallb (fun p => P (fst p) && P (snd p)) l = true.
Proof.
  intros P rows l H K. apply forallb_forall. intros p I. destruct (rows2_in _ _ H p I) as [A B].
  rewrite (K _ A), (K _ B). reflexivity.
Qed.

Lemma rows_num_in : forall l ln, rows_num l = Ok ln -> forall p, In p ln -> exists q, In q l /\ fst q = fst p.
Proof.
  intros l ln H p I. rewrite (rows_num_inv _ _ H). exists (num_pair p). split; [apply in_map, I | reflexivity].
Qed.

Lemma leb_of_ltb : forall a b, (b <? S a)%nat = false -> (S a <=? b)%nat = true.
Proof. intros a b H. apply Nat.ltb_ge in H. apply Nat.leb_le. exact H. Qed.

Lemma good_num : forall n, all_good (ENum n) = true.
Proof. reflexivity. Qed.

(* the classes of a value list give its shape *)
Lemma fvals_cls_nil : forall vals, fvals_cls [] vals = true -> vals = [].
Proof. intros [|? ?] H; [reflexivity | discriminate H]. Qed.
Lemma fvals_cls_cons : forall f fs vals, fvals_cls (f :: fs) vals = true ->
  exists v vs, vals = v :: vs /\ fval_cls f v = true /\ fvals_cls fs vs = true.
Proof.
  intros f fs [|v vs] H; [discriminate H|]. cbn [fvals_cls] in H. apply andb_prop in H.
  exists v, vs. split; [reflexivity | exact H].
Qed.
Lemma fval_cls_node : forall T v, fval_cls (FOne (SNode T)) v = true ->
  exists a, v = FV (VE a) /\ derives (type_code a) T = true.
Proof. intros T [[?|?|a]|?] H; try discriminate H. exists a. split; [reflexivity | exact H]. Qed.
Lemma fval_cls_seq : forall z elem v, fval_cls (FSeq z elem) v = true ->
  exists rows, v = FL rows /\ forallb (row_cls elem) rows = true.
Proof. intros z elem [?|rows] H; [discriminate H|]. exists rows. split; [reflexivity | exact H]. Qed.
Lemma fval_cls_one : forall s v, fval_cls (FOne s) v = true -> exists x, v = FV x.
Proof. intros s [x|?] H; [exists x; reflexivity | discriminate H]. Qed.

(* inverts the cases of a function in H one after the other *)
Ltac break H := repeat match type of H with
  | context [match ?x with _ => _ end] => destruct x eqn:?; try discriminate H
  | context [if ?x then _ else _] => destruct x eqn:?; try discriminate H
  end.

Lemma build_good : forall tc vals e sch,
  tc < TC_Count -> schema_k (kind_of tc) = Some sch -> fvals_cls sch vals = true ->
  (forall c, In c (vals_kids vals) -> all_good c = true) ->
  build tc vals = Ok e ->
  all_good e = true /\ forall T, derives tc T = true -> derives (type_code e) T = true.
Proof.
  intros tc vals e sch TC SK CL KG H.
  pose proof (tc_facts_all tc TC) as TF. unfold tc_facts in TF.
  destruct (kind_of tc) eqn:K; cbn [schema_k] in SK; try discriminate SK; injection SK as <-; unfold nd in CL.
  (* by their classes the values have the shape of the class's row of [build] ... *)
  all: repeat (apply fvals_cls_cons in CL; destruct CL as [?v [?vs [-> [?C CL]]]]).
  all: apply fvals_cls_nil in CL; subst.
  all: repeat match goal with
       | C : fval_cls (FOne (SNode _)) _ = true |- _ => apply fval_cls_node in C; destruct C as [?a [-> C]]
       | C : fval_cls (FSeq _ _) _ = true |- _ => apply fval_cls_seq in C; destruct C as [?rows [-> C]]
       | C : fval_cls (FOne _) _ = true |- _ => apply fval_cls_one in C; destruct C as [?x ->]
       end.
  (* ... which computes; left to invert: the values that are not nodes, and the helpers' results *)
  all: unfold build in H; rewrite K in H; unfold bind in H; break H; try discriminate H; subst; injection H as <-;
    unfold vals_kids in KG; cbn [flat_map fval_kids sval_kids app] in KG;
    try (apply N.eqb_eq in TF; subst tc).
  (* one goal per row of [build] that returns a value.  Where the value is a number or a node without
     members (Symbol, Dummy, Constant, BooleanAtom) it is good by computation; its class by cases
     on T, a number being of every class its code derives *)
  all: try (split; [reflexivity | intros T D; destruct T; try reflexivity; try discriminate D; apply num_derives]).
  (* the other rows return a node with members, whose type code is tc (second half of the statement);
     [all_good] of it is the conjunction of class_typed, sized_ok and the goodness of the members.
     The tests the row has passed become hypotheses of the same form *)
  all: cbn [all_good]; unfold good; cbn [class_typed sized_ok type_code];
    repeat match goal with K : kind_of ?c = _ |- _ => rewrite K end.
  all: repeat match goal with
       | H : (_ && _) = true |- _ => apply andb_prop in H; destruct H
       | H : (_ <? S _)%nat = false |- _ => apply leb_of_ltb in H
       end.
  all: try rewrite app_nil_r in KG.
  all: split; [|try (intros T D; exact D)].
  (* conjunct by conjunct.  About a single member (Pow, Interval, Not, Contains, Complement, the
     one- and two-argument functions, the first member of Derivative and Subs): its class is a
     hypothesis from fvals_cls, it is good by KG; a size test is one the row made *)
  all: repeat (apply andb_true_intro; split); try reflexivity; try assumption;
       try (apply KG; cbn; auto 7).
  all: try (unfold is_class; assumption).
  (* left are the conjuncts about the members of a sequence.  The containers only drop members, so
     each is about the list rows1 / rows2 returned ... *)
  all: try (eapply forallb_sub; [first [apply set_build_in | apply kl_build_in | apply ms_build_in]|]).
  (* ... whose classes (And/Or, Xor, Union, Piecewise) are those of the rows, and whose goodness is
     that of the nodes of the rows, which KG gives *)
  all: try (eapply rows1_cls; eassumption).
  all: try (eapply rows2_cls; eassumption).
  all: try (eapply rows1_all; [eassumption|]; intros c I; apply KG; cbn [In]; auto 7).
  all: try (eapply rows2_all; [eassumption|]; intros c I; apply KG; cbn [In]; auto 7).
  (* Add: x is a term of rows_num's result, its key the first component of a pair of rows2's *)
  apply forallb_forall. intros x I. apply um_build_in in I.
  match goal with R : rows_num _ = Ok _ |- _ => destruct (rows_num_in _ _ R _ I) as [q [Q1 Q2]] end.
  match goal with R : rows2 _ = Ok _ |- _ => destruct (rows2_in _ _ R _ Q1) as [Q3 _] end.
  rewrite <- Q2. apply KG. cbn [In]. auto 7.
Qed.

Definition tbl_good (t : list (N * wtree)) : Prop :=
  forall a w, lookup a t = Some w -> all_good (wt_expr w) = true.

Lemma tbl_good_cons : forall a w t, all_good (wt_expr w) = true -> tbl_good t -> tbl_good ((a, w) :: t).
Proof.
  intros a w t G TG a' w' L. cbn [lookup] in L.
  destruct (a =? a'); [injection L as <-; exact G | exact (TG a' w' L)].
Qed.

(* what a decoder returns when started on a good table: a value that, with the labels dropped, is
   of the expected classes and has good nodes; and a good table *)
Definition good_out {A B} (unl : A -> B) (cls : B -> bool) (kids : B -> list expr) (x : A * dstate) : Prop :=
  cls (unl (fst x)) = true /\ Forall (fun c => all_good c = true) (kids (unl (fst x))) /\ tbl_good (snd (snd x)).

(* for a list of values decoded one after the other: [cls'] on a list is [cls1] on the head and
   [clss] on the tail, the nodes are those of the members *)
Lemma good_out_nil : forall {A B} (unl : A -> B) (cls : list B -> bool) (kids : B -> list expr) st,
  cls [] = true -> tbl_good (snd st) -> good_out (map unl) cls (flat_map kids) ([], st).
Proof. intros A B unl cls kids st C TG. split; [exact C|]. split; [constructor | exact TG]. Qed.

Lemma good_out_cons : forall {A B} {unl : A -> B} {cls1 clss cls' kids v vs st1 st2},
  good_out unl cls1 kids (v, st1) -> good_out (map unl) clss (flat_map kids) (vs, st2) ->
  (forall b bs, cls' (b :: bs) = cls1 b && clss bs) ->
  good_out (map unl) cls' (flat_map kids) (v :: vs, st2).
Proof.
  intros A B unl cls1 clss cls' kids v vs st1 st2 [C1 [G1 _]] [C2 [G2 T2]] E. unfold good_out. cbn [fst snd map flat_map] in *.
  split; [rewrite E, C1, C2; reflexivity|].
  split; [apply Forall_app; split; assumption | exact T2].
Qed.

Section FieldsGood.
  Variable rec : tclass -> dstate -> res (wtree * dstate).
  Variable sw : bool.
  Hypothesis rec_good : forall T st, tbl_good (snd st) ->
    post (good_out wt_expr (is_class T) (fun e => [e])) (rec T st).

  Lemma sfield_good : forall f st, tbl_good (snd st) ->
    post (good_out (sval_map wt_expr) (sval_cls f) sval_kids) (dec_sfield rec sw f st).
  Proof.
    intros f st TG.
    assert (E : forall (v : sval wtree) bs, (forall a, v <> VE a) -> sval_cls f (sval_map wt_expr v) = true ->
                  good_out (sval_map wt_expr) (sval_cls f) sval_kids (v, (bs, snd st))).
    { intros v bs NE C. split; [exact C|]. split; [|exact TG]. destruct v; [constructor | constructor|]. destruct (NE a eq_refl). }
    destruct f; cbn [dec_sfield].
    1-4: apply post_then; intros [n bs]; apply post_ok, E; [discriminate | reflexivity].
    - apply post_then. intros [n bs]. destruct (ALLOC_LIMIT <=? n); [apply post_exn|].
      destruct (take_n n bs) as [[s bs']|]; [|apply post_exn]. apply post_ok, E; [discriminate | reflexivity].
    - eapply post_bind; [apply rec_good, TG|]. intros [w st'] G. apply post_ok. exact G.
  Qed.

  Lemma svals_good : forall fs st, tbl_good (snd st) ->
    post (good_out (map (sval_map wt_expr)) (row_cls fs) row_kids) (dec_svals rec sw fs st).
  Proof.
    induction fs as [|f fs IH]; intros st TG; cbn [dec_svals].
    - apply post_ok, good_out_nil; [reflexivity | exact TG].
    - eapply post_bind; [apply sfield_good, TG|]. intros [v st1] G1.
      eapply post_bind; [apply IH, G1|]. intros [vs st2] G2.
      apply post_ok. exact (good_out_cons G1 G2 (fun _ _ => eq_refl)).
  Qed.

  Lemma rows_good : forall elem k cnt st, tbl_good (snd st) ->
    post (good_out (map (map (sval_map wt_expr))) (forallb (row_cls elem)) (flat_map row_kids))
         (dec_rows rec sw k cnt elem st).
  Proof.
    intros elem. induction k as [|k IH]; intros cnt st TG; cbn [dec_rows];
      (destruct (cnt =? 0); [apply post_ok, good_out_nil; [reflexivity | exact TG]|]).
    - intros a E. discriminate E.
    - eapply post_bind; [apply svals_good, TG|]. intros [row st1] G1.
      eapply post_bind; [apply IH, G1|]. intros [rows st2] G2.
      apply post_ok. exact (good_out_cons G1 G2 (fun _ _ => eq_refl)).
  Qed.

  Lemma field_good : forall k f st, tbl_good (snd st) ->
    post (good_out (fval_map wt_expr) (fval_cls f) fval_kids) (dec_field rec sw k f st).
  Proof.
    intros k f st TG. destruct f as [s|esz elem]; cbn [dec_field].
    - eapply post_bind; [apply sfield_good, TG|]. intros [v st1] G. apply post_ok. exact G.
    - apply post_then. intros [n bs]. destruct (ALLOC_LIMIT <=? n * esz); [apply post_exn|].
      eapply post_bind; [apply rows_good, TG|]. intros [rows st1] G. apply post_ok. exact G.
  Qed.

  Lemma fields_good : forall k fs st, tbl_good (snd st) ->
    post (good_out (map (fval_map wt_expr)) (fvals_cls fs) vals_kids) (dec_fields rec sw k fs st).
  Proof using rec_good.
    intros k. induction fs as [|f fs IH]; intros st TG; cbn [dec_fields].
    - apply post_ok, good_out_nil; [reflexivity | exact TG].
    - eapply post_bind; [apply field_good, TG|]. intros [v st1] G1.
      eapply post_bind; [apply IH, G1|]. intros [vs st2] G2.
      apply post_ok. exact (good_out_cons G1 G2 (fun _ _ => eq_refl)).
  Qed.
End FieldsGood.

Theorem dec_node_good : forall sw f T st, tbl_good (snd st) ->
  post (good_out wt_expr (is_class T) (fun e => [e])) (dec_node f sw T st).
Proof.
  intros sw. induction f as [|f IH]; intros T st TG; [intros a E; discriminate E|].
  cbn [dec_node]. apply post_then. intros [addr bs1]. apply post_then. intros [fs bs2].
  destruct (2 <=? fs); [apply post_exn|]. destruct (fs =? 0).
  - (* a reference *)
    destruct (lookup addr (snd st)) as [w|] eqn:LK; [|apply post_exn].
    destruct (derives _ T) eqn:D; [|apply post_exn]. apply post_ok.
    split; [exact D|]. split; [constructor; [exact (TG _ _ LK) | constructor] | exact TG].
  - (* a new node *)
    apply post_then. intros [tc bs3].
    destruct (TC_Count <=? tc) eqn:TC; [apply post_exn|]. apply N.leb_gt in TC.
    destruct (schema_k (kind_of tc)) as [sch|] eqn:SK; [|apply post_exn].
    eapply post_bind; [apply (fields_good (dec_node f sw) sw IH); exact TG|]. intros [vals st'] [C [G TG']].
    cbn [fst snd] in *.
    apply (post_bind (fun e => all_good e = true /\ forall T, derives tc T = true -> derives (type_code e) T = true)).
    + intros e B. exact (build_good tc _ e sch TC SK C (proj1 (Forall_forall _ _) G) B).
    + intros e [AG DV]. destruct (derives tc T) eqn:D; [|apply post_exn]. apply post_ok.
      split; [exact (DV T D)|]. split; [constructor; [exact AG | constructor] | apply tbl_good_cons; assumption].
Qed.

(* every node of every tree that loads returns is well typed and of an admissible size *)
Theorem decode_good : forall ver bs e, decode ver bs = Ok e -> all_good e = true.
Proof.
  intros ver bs. change (post (fun e => all_good e = true) (decode ver bs)).
  unfold decode, decode_lab. apply (post_bind (fun w => all_good (wt_expr w) = true)); [|intros w G; apply post_ok, G].
  apply post_then. intros [[[sw ma] mi] r]. destruct (negb _); [apply post_exn|].
  eapply post_bind; [apply dec_node_good; intros a w L; discriminate L|].
  intros [w st] [_ [G _]]. apply post_ok. exact (Forall_inv G).
Qed.
