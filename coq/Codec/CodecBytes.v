(* C19 / C20 -- the byte-level primitives of the codec: fixed-width integers in both byte
   orders, decimal integer strings. *)
From SE Require Import Codec.CodecModel.
From Coq Require Import Lia ZifyBool ZifyNat ZifyN.
#[local] Ltac Zify.zify_post_hook ::= Z.div_mod_to_equations.
Local Open Scope N_scope.

Lemma split_app : forall (l r : list N), firstn (length l) (l ++ r) = l /\ skipn (length l) (l ++ r) = r.
Proof.
  intros l r. rewrite firstn_app, skipn_app, Nat.sub_diag, firstn_all, skipn_all. cbn [firstn skipn app].
  rewrite app_nil_r. split; reflexivity.
Qed.

Lemma take_app : forall (l r : list N), take (length l) (l ++ r) = Some (l, r).
Proof.
  intros l r. unfold take. destruct (split_app l r) as [-> ->]. rewrite app_length.
  replace (length l <=? length l + length r)%nat with true by (symmetry; apply Nat.leb_le; lia). reflexivity.
Qed.

Lemma take_some : forall n bs h t, take n bs = Some (h, t) -> bs = h ++ t /\ length h = n.
Proof.
  unfold take. intros n bs h t H.
  destruct (n <=? length bs)%nat eqn:E; [|discriminate].
  injection H as <- <-. split; [symmetry; apply firstn_skipn|].
  apply Nat.leb_le in E. apply firstn_length_le; exact E.
Qed.

Lemma take_n_app : forall (l r : list N), take_n (N.of_nat (length l)) (l ++ r) = Some (l, r).
Proof.
  intros l r. unfold take_n. rewrite Nat2N.id. destruct (split_app l r) as [-> ->]. rewrite app_length.
  replace (N.of_nat (length l + length r) <? N.of_nat (length l)) with false by (symmetry; apply N.ltb_ge; lia).
  reflexivity.
Qed.

Lemma take_n_some : forall n bs h t, take_n n bs = Some (h, t) -> bs = h ++ t /\ N.of_nat (length h) = n.
Proof.
  unfold take_n. intros n bs h t H.
  destruct (N.of_nat (length bs) <? n) eqn:E; [discriminate|].
  injection H as <- <-. split; [symmetry; apply firstn_skipn|].
  apply N.ltb_ge in E. rewrite firstn_length_le by lia. lia.
Qed.

Lemma le_bytes_length : forall w n, length (le_bytes w n) = w.
Proof. induction w; intros; cbn [le_bytes length]; [reflexivity | f_equal; apply IHw]. Qed.

Lemma le_val_bytes : forall w n, le_val (le_bytes w n) = n mod 256 ^ N.of_nat w.
Proof.
  induction w; intros n.
  - cbn. symmetry. apply N.mod_1_r.
  - cbn [le_bytes le_val]. rewrite IHw.
    replace (N.of_nat (S w)) with (N.succ (N.of_nat w)) by lia.
    rewrite N.pow_succ_r'.
    assert (H : 256 ^ N.of_nat w <> 0) by (apply N.pow_nonzero; discriminate).
    rewrite N.mod_mul_r by (try discriminate; exact H). reflexivity.
Qed.

Lemma wr_uint_length : forall sw w n, length (wr_uint sw w n) = w.
Proof. intros. unfold wr_uint. destruct sw; [rewrite rev_length|]; apply le_bytes_length. Qed.

Lemma rd_wr_uint : forall sw w n rest,
  n < 256 ^ N.of_nat w -> rd_uint sw w (wr_uint sw w n ++ rest) = Ok (n, rest).
Proof.
  intros sw w n rest H. unfold rd_uint.
  pose proof (take_app (wr_uint sw w n) rest) as T. rewrite wr_uint_length in T. rewrite T.
  unfold wr_uint. destruct sw; [rewrite rev_involutive|]; rewrite le_val_bytes, N.mod_small by exact H; reflexivity.
Qed.

Definition dstep (a d : N) : N := a * 10 + (d - 48).

Lemma div10_lt : forall fuel n, n < 10 ^ N.of_nat (S fuel) -> n / 10 < 10 ^ N.of_nat fuel.
Proof.
  intros fuel n H. replace (N.of_nat (S fuel)) with (N.succ (N.of_nat fuel)) in H by lia.
  rewrite N.pow_succ_r' in H. apply N.div_lt_upper_bound; [discriminate | exact H].
Qed.

(* value of a digit string with an accumulator *)
Lemma digs_fold : forall fuel n acc a,
  fold_left dstep (digs fuel n acc) a = fold_left dstep acc (fold_left dstep (digs fuel n []) a).
Proof.
  induction fuel; intros n acc a; cbn [digs]; [reflexivity|].
  destruct (n <? 10); [reflexivity|].
  rewrite (IHfuel (n / 10) ((48 + n mod 10) :: acc) a), (IHfuel (n / 10) [48 + n mod 10] a). reflexivity.
Qed.

Lemma digs_value : forall fuel n,
  n < 10 ^ N.of_nat fuel -> (0 < fuel)%nat -> fold_left dstep (digs fuel n []) 0 = n.
Proof.
  induction fuel; intros n H F; [lia|].
  cbn [digs]. destruct (n <? 10) eqn:E.
  - cbn [fold_left]. unfold dstep. lia.
  - apply N.ltb_ge in E. pose proof (div10_lt fuel n H) as H'.
    rewrite digs_fold. cbn [fold_left].
    destruct fuel as [|fuel'].
    + cbn in H'. assert (n / 10 = 0) by lia. lia.
    + rewrite IHfuel by (try exact H'; lia). unfold dstep.
      pose proof (N.mod_lt n 10). lia.
Qed.

Lemma digit_48 : forall d, d < 10 -> is_digit (48 + d) = true.
Proof.
  intros d H. unfold is_digit. apply andb_true_intro. split; apply N.leb_le; lia.
Qed.

Lemma digs_digits : forall fuel n acc,
  forallb is_digit acc = true -> forallb is_digit (digs fuel n acc) = true.
Proof.
  induction fuel; intros n acc H; cbn [digs]; [exact H|].
  destruct (n <? 10) eqn:E.
  - cbn [forallb]. rewrite H, digit_48 by (apply N.ltb_lt, E). reflexivity.
  - apply IHfuel. cbn [forallb]. rewrite H, digit_48 by (apply N.mod_lt; discriminate). reflexivity.
Qed.

Lemma digs_nonempty : forall fuel n acc, (0 < fuel)%nat -> digs fuel n acc <> [].
Proof.
  induction fuel; intros n acc F; [lia|]. cbn [digs].
  destruct (n <? 10); [discriminate|].
  destruct fuel; [cbn; discriminate | apply IHfuel; lia].
Qed.

Lemma size_bound : forall n, n < 10 ^ N.of_nat (S (N.to_nat (N.size n))).
Proof.
  intros n. destruct n as [|p]; [cbn; lia|].
  assert (H : N.pos p < 2 ^ N.size (N.pos p)) by (apply N.size_gt).
  replace (N.of_nat (S (N.to_nat (N.size (N.pos p))))) with (N.succ (N.size (N.pos p))) by lia.
  eapply N.lt_le_trans; [exact H|].
  rewrite N.pow_succ_r'.
  assert (2 ^ N.size (N.pos p) <= 10 ^ N.size (N.pos p)) by (apply N.pow_le_mono_l; lia).
  lia.
Qed.

Lemma dec_string_N_val : forall n, digits_val (dec_string_N n) = n.
Proof.
  intros n. unfold dec_string_N. change digits_val with (fun l => fold_left dstep l 0). cbn beta.
  apply digs_value; [apply size_bound | lia].
Qed.

Lemma dec_string_N_digits : forall n, forallb is_digit (dec_string_N n) = true.
Proof. intros. unfold dec_string_N. apply digs_digits. reflexivity. Qed.

Lemma dec_string_N_nonempty : forall n, dec_string_N n <> [].
Proof. intros. unfold dec_string_N. apply digs_nonempty. lia. Qed.

(* loads reads back what operator<< printed *)
Lemma parse_dec_string : forall z, parse_int (dec_string z) = Ok z.
Proof.
  intros z. unfold dec_string.
  destruct z as [|p|p].
  - reflexivity.
  - cbn [Z.to_N].
    pose proof (dec_string_N_digits (N.pos p)) as D.
    pose proof (dec_string_N_val (N.pos p)) as V.
    destruct (dec_string_N (N.pos p)) as [|c r] eqn:E; [exfalso; eapply dec_string_N_nonempty; exact E|].
    unfold parse_int. cbn [forallb] in D. apply andb_prop in D. destruct D as [D1 D2].
    rewrite D1, D2, orb_true_r. cbn [negb].
    assert (C : (c =? 45) = false).
    { unfold is_digit in D1. apply N.eqb_neq. lia. }
    rewrite C, V. reflexivity.
  - unfold parse_int.
    replace (45 =? 45) with true by reflexivity. cbn [orb negb].
    rewrite dec_string_N_digits. cbn [negb]. rewrite dec_string_N_val. reflexivity.
Qed.

Lemma dec_string_bytes : forall z, forallb (fun b => b <? 256) (dec_string z) = true.
Proof.
  intros z.
  assert (H : forall l, forallb is_digit l = true -> forallb (fun b => b <? 256) l = true).
  { induction l; cbn [forallb]; [reflexivity|]. intros A. apply andb_prop in A. destruct A as [A1 A2].
    rewrite IHl by exact A2. unfold is_digit in A1.
    replace (a <? 256) with true by (symmetry; apply N.ltb_lt; lia). reflexivity. }
  unfold dec_string. destruct z; try (apply H, dec_string_N_digits).
  cbn [forallb]. rewrite H by apply dec_string_N_digits. reflexivity.
Qed.
